(* Conc/CacheInv.v — the three component invariants of the cache model (SInv: table and recency list;
   RInv: reference census and handles; LInv: values, delFuncs and the event log), each stated on the components
   it depends on, and their preservation by the primitive updates.  Conc/CacheProofs.v assembles them into
   [Inv] and proves it for every operation. *)
From GL Require Import Conc.Cache Conc.CacheLemmas.
From GL Require Mem.ListLemmas.
From Coq Require Import Lia Permutation.

Definition rcount (n : node) : Z := if resident n then 1%Z else 0%Z.

(* in-flight references: references held by an operation in progress (the local variable n of
   Get/Delete/Evict, the lru handles collected in 'evicted' and not yet released) *)
Definition padd (x : N) (k : Z) (p : N -> Z) : N -> Z := fun y => if y =? x then (p y + k)%Z else p y.
Definition p0 : N -> Z := fun _ => 0%Z.

Lemma padd_same x k p : padd x k p x = (p x + k)%Z.
Proof. unfold padd. now rewrite N.eqb_refl. Qed.
Lemma padd_other x k p y : y <> x -> padd x k p y = p y.
Proof. unfold padd. intro H. apply N.eqb_neq in H. now rewrite H. Qed.

Record SInv (nodes : list node) (order : list N) (used : Z) (nn : N) : Prop := {
  si_keys : NoDup (map keyof nodes);
  si_ids : NoDup (ids nodes);
  si_fresh : forall n, In n nodes -> n_id n < nn;
  si_ord_nd : NoDup order;
  si_ord : forall x, In x order <-> exists n, In n nodes /\ n_id n = x /\ resident n = true;
  si_used : used = nsum ucontrib nodes;
  si_resval : forall n, In n nodes -> resident n = true -> n_val n <> None }.

Definition InvS (s : state) : Prop := SInv (s_nodes s) (s_order s) (s_used s) (s_next_nid s).

Lemma SInv_find_id nodes order used nn x n :
  SInv nodes order used nn -> (find_id x nodes = Some n <-> In n nodes /\ n_id n = x).
Proof. intro H. apply find_id_some_iff, H. Qed.

Lemma SInv_same_id nodes order used nn n m :
  SInv nodes order used nn -> In n nodes -> In m nodes -> n_id n = n_id m -> n = m.
Proof. intro H. apply same_id_eq, H. Qed.

Lemma SInv_find_key nodes order used nn n :
  SInv nodes order used nn -> In n nodes -> find_key (n_ns n) (n_key n) nodes = Some n.
Proof. intros H Hn. apply find_key_in; auto. apply H. Qed.

(* updating one node without touching its lru state, its contribution to used, nor making a
   resident node valueless *)
Lemma SInv_upd nodes order used nn x f n :
  SInv nodes order used nn -> In n nodes -> n_id n = x -> pres f ->
  resident (f n) = resident n -> ucontrib (f n) = ucontrib n ->
  (resident n = true -> n_val (f n) <> None) ->
  SInv (upd_id x f nodes) order used nn.
Proof.
  intros H Hn Hx Hf Hr Hu Hv. destruct H as [K I F ON O U RV]. split; auto.
  - now rewrite keys_upd.
  - now rewrite ids_upd.
  - intros m Hm. apply in_upd in Hm. destruct Hm as (m0 & Hm0 & ->).
    destruct (n_id m0 =? x); [rewrite (proj1 (Hf m0))|]; auto.
  - intro y. rewrite O. split; intros (m & Hm & Hy & Hres).
    + destruct (N.eq_dec (n_id m) x) as [e|ne].
      * assert (m = n) as -> by (eapply SInv_same_id; eauto; [split; eauto|congruence]).
        exists (f n). split; [now apply in_upd_same|]. rewrite (proj1 (Hf n)). split; congruence.
      * exists m. split; auto. now apply in_upd_other.
    + destruct (in_upd_cases _ _ _ _ _ I Hn Hx Hm) as [->|[Hm0 _]]; [|exists m; auto].
      exists n. rewrite (proj1 (Hf n)) in Hy. split; auto. split; congruence.
  - rewrite (nsum_upd ucontrib x f nodes n); auto. lia.
  - intros m Hm Hres. destruct (in_upd_cases _ _ _ _ _ I Hn Hx Hm) as [->|[Hm0 _]]; auto.
    apply Hv. congruence.
Qed.

Lemma remove_order_head x l : NoDup (x :: l) -> remove_order x (x :: l) = l.
Proof.
  intro H. inversion H; subst. unfold remove_order. cbn. rewrite N.eqb_refl. cbn.
  apply ListLemmas.filter_all. intros y Hy. apply negb_true_iff, N.eqb_neq. intro; subst; tauto.
Qed.

(* a resident node leaves the lru list (eviction, ban) *)
Lemma SInv_unlink nodes order used nn x l n :
  SInv nodes order used nn -> In n nodes -> n_id n = x -> resident n = true -> l <> LResident ->
  SInv (upd_id x (nd_lru l) nodes) (remove_order x order) (used - Z.of_N (n_size n))%Z nn.
Proof.
  intros H Hn Hx Hres Hl. pose proof H as [K I F ON O U RV].
  assert (resident (nd_lru l n) = false) as Hres'.
  { unfold resident. cbn. destruct l; auto. congruence. }
  split; auto.
  - rewrite keys_upd; auto with cache.
  - rewrite ids_upd; auto with cache.
  - intros m Hm. apply in_upd in Hm. destruct Hm as (m0 & Hm0 & ->).
    destruct (n_id m0 =? x); cbn; auto.
  - now apply nodup_remove_order.
  - intro y. rewrite in_remove_order, O. split.
    + intros ((m & Hm & Hy & Hr) & Hne). exists m. split; auto. apply in_upd_other; auto. congruence.
    + intros (m & Hm & Hy & Hr). destruct (in_upd_cases _ _ _ _ _ I Hn Hx Hm) as [->|[Hm0 ne]]; [congruence|].
      split; [exists m; auto|congruence].
  - rewrite (nsum_upd ucontrib x _ nodes n); auto.
    unfold ucontrib at 3. rewrite Hres'. unfold ucontrib at 2. rewrite Hres. lia.
  - intros m Hm Hr. destruct (in_upd_cases _ _ _ _ _ I Hn Hx Hm) as [->|[Hm0 _]]; auto. congruence.
Qed.

(* a non-resident node with a value is linked at the most-recent end *)
Lemma SInv_link nodes order used nn x f n :
  SInv nodes order used nn -> In n nodes -> n_id n = x -> resident n = false -> n_val n <> None ->
  pres f -> n_lru (f n) = LResident -> n_size (f n) = n_size n -> n_val (f n) = n_val n ->
  SInv (upd_id x f nodes) (order ++ [x]) (used + Z.of_N (n_size n))%Z nn.
Proof.
  intros H Hn Hx Hres Hv Hf Hl Hsz Hvv. pose proof H as [K I F ON O U RV].
  assert (resident (f n) = true) as Hres' by (unfold resident; now rewrite Hl).
  assert (~ In x order) as Hnot.
  { rewrite O. intros (m & Hm & Hy & Hr). assert (m = n) as -> by (eapply SInv_same_id; eauto; congruence). congruence. }
  split; auto.
  - rewrite keys_upd; auto.
  - rewrite ids_upd; auto.
  - intros m Hm. apply in_upd in Hm. destruct Hm as (m0 & Hm0 & ->).
    destruct (n_id m0 =? x); [rewrite (proj1 (Hf m0))|]; auto.
  - apply ListLemmas.NoDup_app_intro; auto.
    + constructor; [intros []|constructor].
    + intros y Hy [<-|[]]. tauto.
  - intro y. rewrite in_app_iff, O. cbn. split.
    + intros [(m & Hm & Hy & Hr)|[<-|[]]].
      * exists m. split; auto. apply in_upd_other; auto. intro e. apply Hnot. apply O. exists m. auto.
      * exists (f n). split; [now apply in_upd_same|]. split; auto. rewrite (proj1 (Hf n)). auto.
    + intros (m & Hm & Hy & Hr). destruct (in_upd_cases _ _ _ _ _ I Hn Hx Hm) as [->|[Hm0 _]]; [|left; exists m; auto].
      right. left. rewrite <- Hy. symmetry. rewrite (proj1 (Hf n)). auto.
  - rewrite (nsum_upd ucontrib x _ nodes n); auto.
    unfold ucontrib at 3. rewrite Hres'. unfold ucontrib at 2. rewrite Hres, Hsz. lia.
  - intros m Hm Hr. destruct (in_upd_cases _ _ _ _ _ I Hn Hx Hm) as [->|[Hm0 _]]; auto. congruence.
Qed.

(* move to the most-recent end *)
Lemma SInv_touch nodes order used nn x :
  SInv nodes order used nn -> In x order -> SInv nodes (remove_order x order ++ [x]) used nn.
Proof.
  intros [K I F ON O U RV] Hx. split; auto.
  - apply ListLemmas.NoDup_app_intro.
    + now apply nodup_remove_order.
    + constructor; [intros []|constructor].
    + intros y Hy [<-|[]]. apply in_remove_order in Hy. tauto.
  - intro y. rewrite <- O, in_app_iff, in_remove_order. cbn.
    destruct (N.eq_dec y x) as [->|ne]; [tauto|]. split; [intros [[? ?]|[e|[]]]; congruence|tauto].
Qed.

(* a non-resident node is unlinked from the map *)
Lemma SInv_remove nodes order used nn n :
  SInv nodes order used nn -> In n nodes -> resident n = false ->
  SInv (remove_id (n_id n) nodes) order used nn.
Proof.
  intros H Hn Hres. pose proof H as [K I F ON O U RV]. split; auto.
  - now apply keys_remove_nodup.
  - now apply ids_remove_nodup.
  - intros m Hm. apply in_remove in Hm. apply F, Hm.
  - intro y. rewrite O. split; intros (m & Hm & Hy & Hr).
    + exists m. split; auto. apply in_remove. split; auto. intro e.
      assert (m = n) as -> by (eapply SInv_same_id; eauto). congruence.
    + apply in_remove in Hm. exists m. tauto.
  - rewrite nsum_remove; auto. unfold ucontrib at 2. rewrite Hres. lia.
  - intros m Hm. apply in_remove in Hm. apply RV, Hm.
Qed.

(* a fresh node is linked into the map *)
Lemma SInv_insert nodes order used nn ns key :
  SInv nodes order used nn -> find_key ns key nodes = None ->
  SInv (insert_node (mkNode ns key nn 1%Z None 0 [] LAbsent) nodes) order used (nn + 1).
Proof.
  intros H Hk. pose proof H as [K I F ON O U RV]. set (x := mkNode ns key nn 1%Z None 0 [] LAbsent).
  assert (Permutation (insert_node x nodes) (x :: nodes)) as P by apply insert_perm.
  split; auto.
  - apply (Permutation_NoDup (Permutation_map keyof (Permutation_sym P))). cbn. constructor; auto.
    intro Hin. apply in_map_iff in Hin. destruct Hin as (m & e & Hm).
    eapply find_key_none in Hk; eauto.
  - apply (Permutation_NoDup (Permutation_map n_id (Permutation_sym P))). cbn. constructor; auto.
    intro Hin. apply in_map_iff in Hin. destruct Hin as (m & e & Hm). apply F in Hm. lia.
  - intros m Hm. apply in_insert in Hm. destruct Hm as [->|Hm]; [cbn; lia|]. apply F in Hm. lia.
  - intro y. rewrite O. split; intros (m & Hm & Hy & Hr).
    + exists m. split; auto. apply in_insert. auto.
    + apply in_insert in Hm. destruct Hm as [->|Hm]; [discriminate|]. exists m. auto.
  - rewrite nsum_insert. unfold ucontrib at 1. cbn. lia.
  - intros m Hm Hr. apply in_insert in Hm. destruct Hm as [->|Hm]; [discriminate|]. auto.
Qed.

Section WithZq.
(* zq: the nodes for which some goroutine still has the zero-check of a dropped last reference
   pending (always empty in the sequential semantics) — they are exempt from ri_pos.
   The clauses about reference counts are guarded by forced = false: Close(true) resets every count to 0 while
   handles are still out, so a later Release takes it to -1; what holds of a force-closed cache instead is
   [all_dead] (Conc/CacheProofs.v). *)
Variable zq : N -> bool.

Record RInv (p : N -> Z) (nodes : list node) (hs : list (N * N)) (closed forced : bool)
            (nh : N) (stn sts : Z) : Prop := {
  ri_p : forall x, (0 <= p x)%Z;
  ri_pdom : forall x, ~ In x (ids nodes) -> p x = 0%Z;
  ri_ref : forced = false -> forall n, In n nodes ->
             n_ref n = (hcount (n_id n) hs + rcount n + p (n_id n))%Z;
  ri_pos : forced = false -> forall n, In n nodes ->
             (closed = false \/ n_val n <> None \/ n_dels n <> []) -> zq (n_id n) = false -> (0 < n_ref n)%Z;
  ri_fc : forced = true -> closed = true;
  ri_hnd : NoDup (map fst hs);
  ri_hfresh : forall h x, In (h, x) hs -> h < nh;
  ri_hnode : forall h x, In (h, x) hs -> In x (ids nodes);
  ri_hval : forced = false -> forall n, In n nodes -> (0 < hcount (n_id n) hs)%Z -> n_val n <> None;
  ri_stat : closed = false -> stn = Z.of_nat (length nodes) /\ sts = nsum scontrib nodes;
  ri_size0 : closed = false -> forall n, In n nodes -> n_val n = None -> n_size n = 0 }.

Definition InvR (p : N -> Z) (s : state) : Prop :=
  RInv p (s_nodes s) (s_handles s) (s_closed s) (s_forced s) (s_next_hid s) (s_stat_nodes s) (s_stat_size s).

Lemma rcount_nonneg n : (0 <= rcount n)%Z.
Proof. unfold rcount. destruct (resident n); lia. Qed.

Lemma RInv_pext p q nodes hs c f nh a b :
  (forall y, p y = q y) -> RInv p nodes hs c f nh a b -> RInv q nodes hs c f nh a b.
Proof.
  intros E [P PD R PO FC HN HF HO HV ST S0]. split; auto.
  - intro x. rewrite <- E. auto.
  - intros x Hx. rewrite <- E. auto.
  - intros Hf n Hn. rewrite <- E. auto.
Qed.

Definition node_ok (p : N -> Z) (hs : list (N * N)) (closed : bool) (n : node) : Prop :=
  n_ref n = (hcount (n_id n) hs + rcount n + p (n_id n))%Z /\
  ((closed = false \/ n_val n <> None \/ n_dels n <> []) -> zq (n_id n) = false -> (0 < n_ref n)%Z) /\
  ((0 < hcount (n_id n) hs)%Z -> n_val n <> None) /\
  (closed = false -> n_val n = None -> n_size n = 0).

Lemma RInv_node p nodes hs closed forced nh stn sts n :
  RInv p nodes hs closed forced nh stn sts -> forced = false -> In n nodes -> node_ok p hs closed n.
Proof. intros H Hf Hn. repeat split; intros; eapply H; eauto. Qed.

Lemma RInv_upd p p' nodes hs closed forced nh stn sts sts' x f n :
  RInv p nodes hs closed forced nh stn sts -> NoDup (ids nodes) -> In n nodes -> n_id n = x -> pres f ->
  (forall y, 0 <= p' y)%Z -> (forall y, y <> x -> p' y = p y) ->
  (forced = false -> node_ok p hs closed n -> node_ok p' hs closed (f n)) ->
  (closed = false -> sts' = (sts - scontrib n + scontrib (f n))%Z) ->
  RInv p' (upd_id x f nodes) hs closed forced nh stn sts'.
Proof.
  intros H Hnd Hn Hx Hf Hp' Hpo Hnode Hst. pose proof H as [P PD R PO FC HN HF HO HV ST S0].
  assert (forced = false -> forall m, In m (upd_id x f nodes) -> node_ok p' hs closed m) as Nodes.
  { intros Hfo m Hm. destruct (in_upd_cases _ _ _ _ _ Hnd Hn Hx Hm) as [->|[Hm0 ne]].
    - apply Hnode; auto. eapply RInv_node; eauto.
    - unfold node_ok. rewrite Hpo by exact ne. eapply RInv_node; eauto. }
  split; auto.
  - intros y Hy. rewrite ids_upd in Hy by auto. rewrite Hpo; auto. intro; subst. apply Hy. now apply in_ids.
  - intros Hfo m Hm. apply (Nodes Hfo m Hm).
  - intros Hfo m Hm. apply (Nodes Hfo m Hm).
  - intros h y Hy. rewrite ids_upd; eauto.
  - intros Hfo m Hm. apply (Nodes Hfo m Hm).
  - intro Hc. destruct (ST Hc) as [A B]. split.
    + now rewrite length_upd.
    + rewrite (nsum_upd scontrib x f nodes n); auto. rewrite Hst; auto. lia.
  - intros Hc m Hm. destruct forced; [rewrite (FC eq_refl) in Hc; discriminate|]. now apply (Nodes eq_refl m Hm).
Qed.

Lemma RInv_ref0 p nodes hs closed forced nh stn sts n :
  RInv p nodes hs closed forced nh stn sts -> In n nodes -> forced = false -> n_ref n = 0%Z ->
  hcount (n_id n) hs = 0%Z /\ resident n = false /\ p (n_id n) = 0%Z.
Proof.
  intros H Hn Hf Hr. pose proof (ri_ref _ _ _ _ _ _ _ _ H Hf n Hn) as E.
  pose proof (hcount_nonneg (n_id n) hs). pose proof (ri_p _ _ _ _ _ _ _ _ H (n_id n)).
  unfold rcount in E. destruct (resident n); split; try split; auto; lia.
Qed.

Lemma RInv_remove p p' nodes hs closed forced nh stn sts n :
  RInv p nodes hs closed forced nh stn sts -> NoDup (ids nodes) -> In n nodes ->
  hcount (n_id n) hs = 0%Z -> (forall y, y <> n_id n -> p' y = p y) -> p' (n_id n) = 0%Z ->
  RInv p' (remove_id (n_id n) nodes) hs closed forced nh (stn - 1)%Z (sts - Z.of_N (n_size n))%Z.
Proof.
  intros H Hnd Hn H0 Hpo Hpx.
  destruct H as [P PD R PO FC HN HF HO HV ST S0]. split; auto.
  - intro y. destruct (N.eq_dec y (n_id n)) as [->|ne]; [lia|]. rewrite Hpo; auto.
  - intros y Hy. destruct (N.eq_dec y (n_id n)) as [->|ne]; auto. rewrite Hpo; auto. apply PD. intro Hin. apply Hy.
    unfold ids in *. apply in_map_iff in Hin. destruct Hin as (m & <- & Hm). apply in_map.
    apply in_remove. auto.
  - intros Hf m Hm. apply in_remove in Hm. rewrite Hpo by tauto. apply R; tauto.
  - intros Hc m Hm. apply in_remove in Hm. apply PO; tauto.
  - intros h y Hy. pose proof (HO h y Hy) as Hin. unfold ids in *. apply in_map_iff in Hin.
    destruct Hin as (m & <- & Hm). apply in_map. apply in_remove. split; auto. intro e.
    rewrite e in Hy. apply (proj1 (hcount_zero_notin _ _) H0 h). exact Hy.
  - intros Hf m Hm. apply in_remove in Hm. apply HV; tauto.
  - intro Hc. destruct (ST Hc) as [A B]. split.
    + pose proof (length_remove nodes n Hnd Hn). lia.
    + rewrite nsum_remove; auto. unfold scontrib at 2. lia.
  - intros Hc m Hm. apply in_remove in Hm. apply S0; tauto.
Qed.

Lemma RInv_insert p nodes hs forced nh stn sts ns key nn :
  RInv p nodes hs false forced nh stn sts -> (forall n, In n nodes -> n_id n < nn) ->
  RInv (padd nn 1 p) (insert_node (mkNode ns key nn 1%Z None 0 [] LAbsent) nodes) hs false forced nh (stn + 1)%Z sts.
Proof.
  intros [P PD R PO FC HN HF HO HV ST S0] F.
  assert (~ In nn (ids nodes)) as Hnot.
  { intro Hin. unfold ids in Hin. apply in_map_iff in Hin. destruct Hin as (m & e & Hm). apply F in Hm. lia. }
  assert (hcount nn hs = 0%Z) as H0.
  { apply hcount_zero_notin. intros h Hh. apply HO in Hh. tauto. }
  split; auto.
  - intro x. unfold padd. destruct (x =? nn); specialize (P x); lia.
  - intros x Hx. assert (x <> nn) as ne.
    { intro; subst. apply Hx. unfold ids. apply in_map_iff. eexists. split; [|apply in_insert; left; reflexivity]. reflexivity. }
    rewrite padd_other; auto. apply PD. intro Hin. apply Hx. unfold ids in *. apply in_map_iff in Hin.
    destruct Hin as (m & <- & Hm). apply in_map. apply in_insert. auto.
  - intros Hf m Hm. apply in_insert in Hm. destruct Hm as [->|Hm].
    + cbn. rewrite H0, padd_same, (PD nn Hnot). reflexivity.
    + rewrite padd_other; auto. apply F in Hm. lia.
  - intros Hf m Hm _. apply in_insert in Hm. destruct Hm as [->|Hm]; [cbn; lia|auto].
  - intros h y Hy. apply HO in Hy. unfold ids in *. apply in_map_iff in Hy. destruct Hy as (m & <- & Hm).
    apply in_map. apply in_insert. auto.
  - intros Hf m Hm. apply in_insert in Hm. destruct Hm as [->|Hm]; [cbn; lia|auto].
  - intros _. destruct (ST eq_refl) as [A B]. split.
    + rewrite length_insert. lia.
    + rewrite nsum_insert. unfold scontrib at 1. cbn. lia.
  - intros _ m Hm. apply in_insert in Hm. destruct Hm as [->|Hm]; [reflexivity|auto].
Qed.

Lemma RInv_hadd p nodes hs closed forced nh stn sts x n :
  RInv p nodes hs closed forced nh stn sts -> In n nodes -> n_id n = x -> (1 <= p x)%Z ->
  (forced = false -> n_val n <> None) -> NoDup (ids nodes) ->
  RInv (padd x (-1) p) nodes ((nh, x) :: hs) closed forced (nh + 1) stn sts.
Proof.
  intros [P PD R PO FC HN HF HO HV ST S0] Hn Hx Hp Hv Hnd. split; auto.
  - intro y. unfold padd. destruct (N.eqb_spec y x) as [e|ne]; [subst y|]; [specialize (P x)|specialize (P y)]; lia.
  - intros y Hy. rewrite padd_other; auto. intro; subst. apply Hy. now apply in_ids.
  - intros Hf m Hm. rewrite hcount_cons, (R Hf m Hm). unfold padd.
    rewrite (N.eqb_sym (n_id m) x). destruct (x =? n_id m); lia.
  - cbn. constructor; auto. intro Hin. apply in_map_iff in Hin. destruct Hin as ([h y] & e & Hh).
    cbn in e. subst. apply HF in Hh. lia.
  - intros h y [e|Hy]; [inversion e; lia|]. apply HF in Hy. lia.
  - intros h y [e|Hy]; [inversion e; subst; now apply in_ids|eauto].
  - intros Hf m Hm. rewrite hcount_cons. destruct (N.eqb_spec x (n_id m)) as [e|ne].
    + intros _. assert (m = n) as -> by (eapply same_id_eq; eauto; congruence). auto.
    + rewrite Z.add_0_l. auto.
Qed.

Lemma RInv_hdel p nodes hs closed forced nh stn sts h x :
  RInv p nodes hs closed forced nh stn sts -> In (h, x) hs ->
  RInv (padd x 1 p) nodes (hremove h hs) closed forced nh stn sts.
Proof.
  intros [P PD R PO FC HN HF HO HV ST S0] Hh. split; auto.
  - intro y. unfold padd. destruct (y =? x); specialize (P y); lia.
  - intros y Hy. rewrite padd_other; auto. intro; subst. apply Hy. eauto.
  - intros Hf m Hm. rewrite (hcount_hremove h x hs _ HN Hh), (R Hf m Hm). unfold padd.
    rewrite (N.eqb_sym (n_id m) x). destruct (x =? n_id m); lia.
  - unfold hremove. now apply ListLemmas.NoDup_map_filter.
  - intros h' y Hy. apply in_hremove in Hy. apply (HF h' y), Hy.
  - intros h' y Hy. apply in_hremove in Hy. apply (HO h' y), Hy.
  - intros Hf m Hm Hc. apply HV; auto. rewrite (hcount_hremove h x hs _ HN Hh) in Hc.
    destruct (x =? n_id m); lia.
Qed.

Lemma RInv_close p nodes hs nh stn sts force :
  RInv p nodes hs false false nh stn sts -> RInv p nodes hs true force nh stn sts.
Proof.
  intros [P PD R PO FC HN HF HO HV ST S0]. split; auto; try (intros; discriminate).
  all: intros ->; auto.
Qed.

End WithZq.

Lemma RInv_zq_weaken zq zq' p nodes hs c f nh a b :
  (forall y, zq y = true -> zq' y = true) -> RInv zq p nodes hs c f nh a b -> RInv zq' p nodes hs c f nh a b.
Proof.
  intros W [P PD R PO FC HN HF HO HV ST S0]. split; auto.
  intros Hf n Hn Hq Hz. apply PO; auto. destruct (zq (n_id n)) eqn:E; auto. apply W in E. congruence.
Qed.

(* how often the log records: the finalisation of value v, the construction of value v, a construction for
   node x, the run of delFunc d *)
Definition cf (v : N) (lg : list event) : nat := count_ev (is_final v) lg.
Definition ccv (v : N) (lg : list event) : nat := count_ev (is_construct_v v) lg.
Definition ccn (x : N) (lg : list event) : nat := count_ev (is_construct_n x) lg.
Definition cdr (d : N) (lg : list event) : nat := count_ev (is_delrun d) lg.

Record LInv (nodes : list node) (lg : list event) (nv nn nd : N) (closed : bool) : Prop := {
  li_vlive : forall n v, In n nodes -> n_val n = Some v ->
      cf v lg = 0%nat /\ In (EvConstruct (n_id n) v (n_size n)) lg;
  li_vinj : forall n m v, In n nodes -> In m nodes -> n_val n = Some v -> n_val m = Some v -> n_id n = n_id m;
  li_final_le : forall v, (cf v lg <= 1)%nat;
  li_final_fresh : forall v f, In (EvFinal v f) lg -> v < nv;
  li_cons_fresh : forall x v sz, In (EvConstruct x v sz) lg -> v < nv /\ x < nn;
  li_cons_v1 : forall v, (ccv v lg <= 1)%nat;
  li_cons_n1 : forall x, (ccn x lg <= 1)%nat;
  li_cons_none : closed = false -> forall n, In n nodes -> n_val n = None -> ccn (n_id n) lg = 0%nat;
  li_vdead : forall x v sz, In (EvConstruct x v sz) lg ->
      cf v lg = 1%nat \/ exists n, In n nodes /\ n_id n = x /\ n_val n = Some v;
  li_dfresh : forall n d, In n nodes -> In d (n_dels n) -> d < nd;
  li_dnodup : forall n, In n nodes -> NoDup (n_dels n);
  li_dinj : forall n m d, In n nodes -> In m nodes -> In d (n_dels n) -> In d (n_dels m) -> n_id n = n_id m;
  li_dnotrun : forall n d, In n nodes -> In d (n_dels n) -> cdr d lg = 0%nat;
  li_drun_le : forall d, (cdr d lg <= 1)%nat;
  li_drun_fresh : forall d, In (EvDelRun d) lg -> d < nd;
  li_dall : forall d, d < nd -> cdr d lg = 1%nat \/ exists n, In n nodes /\ In d (n_dels n);
  li_dreg : forall d x, In (EvDelReg d x) lg ->
      x < nn /\ d < nd /\
      forall n, In n nodes -> n_id n = x -> In d (n_dels n) \/ (n_val n = None /\ n_dels n = [] /\ closed = true) }.

Definition InvL (s : state) : Prop :=
  LInv (s_nodes s) (s_log s) (s_next_vid s) (s_next_nid s) (s_next_did s) (s_closed s).

Lemma count_map_delrun_other p ds : (forall d, p (EvDelRun d) = false) -> count_ev p (map EvDelRun ds) = 0%nat.
Proof.
  intro H. apply count_ev_zero. intros e He. apply in_map_iff in He. destruct He as (d & <- & _). auto.
Qed.

Lemma count_map_delrun_notin d ds : ~ In d ds -> count_ev (is_delrun d) (map EvDelRun ds) = 0%nat.
Proof.
  intro H. apply count_ev_zero. intros e He. apply in_map_iff in He. destruct He as (d' & <- & Hd).
  cbn. apply N.eqb_neq. intro; subst; tauto.
Qed.

Lemma count_map_delrun_in d ds : NoDup ds -> In d ds -> count_ev (is_delrun d) (map EvDelRun ds) = 1%nat.
Proof.
  induction ds as [|a ds IH]; intros Hnd Hin; [destruct Hin|]. inversion Hnd; subst.
  cbn [map]. rewrite count_ev_cons. cbn [is_delrun]. destruct Hin as [->|Hin].
  - rewrite N.eqb_refl, count_map_delrun_notin; auto.
  - destruct (N.eqb_spec a d) as [->|ne]; [tauto|]. rewrite IH; auto.
Qed.

Definition opt_is (v : N) (o : option N) : bool := match o with Some x => x =? v | None => false end.

Lemma opt_is_true v o : opt_is v o = true <-> o = Some v.
Proof.
  destruct o as [x|]; cbn; [|split; discriminate]. rewrite N.eqb_eq. split; [intros ->; auto|congruence].
Qed.

Lemma count_final_ev p o f lg :
  count_ev p (final_ev o f lg) = ((match o with Some x => if p (EvFinal x f) then 1 else 0 | None => 0 end) + count_ev p lg)%nat.
Proof. destruct o; cbn [final_ev]; auto. apply count_ev_cons. Qed.

(* the log after a finalisation: value released (if any), then the delFuncs in order *)
Definition fin_log (n : node) (f : bool) (lg : list event) : list event :=
  dels_ev (n_dels n) (final_ev (n_val n) f lg).

Lemma fin_cf n f lg v : cf v (fin_log n f lg) = ((if opt_is v (n_val n) then 1 else 0) + cf v lg)%nat.
Proof.
  unfold cf, fin_log. rewrite count_dels_ev, count_map_delrun_other by reflexivity.
  rewrite count_final_ev. destruct (n_val n); reflexivity.
Qed.

Lemma fin_ccv n f lg v : ccv v (fin_log n f lg) = ccv v lg.
Proof.
  unfold ccv, fin_log. rewrite count_dels_ev, count_map_delrun_other by reflexivity.
  rewrite count_final_ev. destruct (n_val n); reflexivity.
Qed.

Lemma fin_ccn n f lg x : ccn x (fin_log n f lg) = ccn x lg.
Proof.
  unfold ccn, fin_log. rewrite count_dels_ev, count_map_delrun_other by reflexivity.
  rewrite count_final_ev. destruct (n_val n); reflexivity.
Qed.

Lemma fin_cdr_in n f lg d : NoDup (n_dels n) -> In d (n_dels n) -> cdr d (fin_log n f lg) = S (cdr d lg).
Proof.
  intros Hnd Hin. unfold cdr, fin_log. rewrite count_dels_ev, count_map_delrun_in by auto.
  rewrite count_final_ev. destruct (n_val n); reflexivity.
Qed.

Lemma fin_cdr_notin n f lg d : ~ In d (n_dels n) -> cdr d (fin_log n f lg) = cdr d lg.
Proof.
  intros Hin. unfold cdr, fin_log. rewrite count_dels_ev, count_map_delrun_notin by auto.
  rewrite count_final_ev. destruct (n_val n); reflexivity.
Qed.

Lemma fin_in n f lg e : In e (fin_log n f lg) <->
  (exists d, In d (n_dels n) /\ e = EvDelRun d) \/ (exists v, n_val n = Some v /\ e = EvFinal v f) \/ In e lg.
Proof. unfold fin_log. rewrite in_dels_ev, in_final_ev. tauto. Qed.

Lemma fin_in_construct n f lg x v sz : In (EvConstruct x v sz) (fin_log n f lg) <-> In (EvConstruct x v sz) lg.
Proof.
  rewrite fin_in. split; auto. intros [(d & _ & e)|[(w & _ & e)|H]]; auto; discriminate.
Qed.

Lemma fin_in_delreg n f lg d x : In (EvDelReg d x) (fin_log n f lg) <-> In (EvDelReg d x) lg.
Proof.
  rewrite fin_in. split; auto. intros [(d' & _ & e)|[(w & _ & e)|H]]; auto; discriminate.
Qed.

(* LInv is two invariants that do not look at each other: one over the values and the construction and
   finalisation events, one over the delFuncs and their registration and run events.  A step that works on one
   side keeps the other by a frame lemma. *)
Record VInv (nodes : list node) (lg : list event) (nv nn : N) (closed : bool) : Prop := {
  vi_live : forall n v, In n nodes -> n_val n = Some v ->
      cf v lg = 0%nat /\ In (EvConstruct (n_id n) v (n_size n)) lg;
  vi_inj : forall n m v, In n nodes -> In m nodes -> n_val n = Some v -> n_val m = Some v -> n_id n = n_id m;
  vi_final_le : forall v, (cf v lg <= 1)%nat;
  vi_final_fresh : forall v f, In (EvFinal v f) lg -> v < nv;
  vi_cons_fresh : forall x v sz, In (EvConstruct x v sz) lg -> v < nv /\ x < nn;
  vi_cons_v1 : forall v, (ccv v lg <= 1)%nat;
  vi_cons_n1 : forall x, (ccn x lg <= 1)%nat;
  vi_cons_none : closed = false -> forall n, In n nodes -> n_val n = None -> ccn (n_id n) lg = 0%nat;
  vi_dead : forall x v sz, In (EvConstruct x v sz) lg ->
      cf v lg = 1%nat \/ exists n, In n nodes /\ n_id n = x /\ n_val n = Some v }.

Record DInv (nodes : list node) (lg : list event) (nn nd : N) (closed : bool) : Prop := {
  di_fresh : forall n d, In n nodes -> In d (n_dels n) -> d < nd;
  di_nodup : forall n, In n nodes -> NoDup (n_dels n);
  di_inj : forall n m d, In n nodes -> In m nodes -> In d (n_dels n) -> In d (n_dels m) -> n_id n = n_id m;
  di_notrun : forall n d, In n nodes -> In d (n_dels n) -> cdr d lg = 0%nat;
  di_run_le : forall d, (cdr d lg <= 1)%nat;
  di_run_fresh : forall d, In (EvDelRun d) lg -> d < nd;
  di_all : forall d, d < nd -> cdr d lg = 1%nat \/ exists n, In n nodes /\ In d (n_dels n);
  di_reg : forall d x, In (EvDelReg d x) lg ->
      x < nn /\ d < nd /\
      forall n, In n nodes -> n_id n = x -> In d (n_dels n) \/ (n_val n = None /\ n_dels n = [] /\ closed = true) }.

Lemma LInv_split nodes lg nv nn nd closed :
  LInv nodes lg nv nn nd closed <-> VInv nodes lg nv nn closed /\ DInv nodes lg nn nd closed.
Proof.
  split.
  - intros []. split; split; assumption.
  - intros [[] []]. split; assumption.
Qed.

(* events the value side, resp. the delFunc side, neither counts nor looks for *)
Definition vquiet (e : event) : Prop := match e with EvFinal _ _ | EvConstruct _ _ _ => False | _ => True end.
Definition dquiet (e : event) : Prop := match e with EvDelRun _ | EvDelReg _ _ => False | _ => True end.

Lemma VInv_log nodes lg nv nn closed e :
  VInv nodes lg nv nn closed -> vquiet e -> VInv nodes (e :: lg) nv nn closed.
Proof.
  intros [VL VI FL FF CF C1 N1 CN VD] He.
  assert (forall k, cf k (e :: lg) = cf k lg) as E1.
  { intro k. unfold cf. rewrite count_ev_cons. destruct e; try contradiction; reflexivity. }
  assert (forall k, ccv k (e :: lg) = ccv k lg) as E2.
  { intro k. unfold ccv. rewrite count_ev_cons. destruct e; try contradiction; reflexivity. }
  assert (forall k, ccn k (e :: lg) = ccn k lg) as E3.
  { intro k. unfold ccn. rewrite count_ev_cons. destruct e; try contradiction; reflexivity. }
  split.
  - intros n v Hn Hv. rewrite E1. destruct (VL n v Hn Hv). split; auto. now right.
  - exact VI.
  - intro v. rewrite E1. apply FL.
  - intros v f [->|H]; [destruct He|eauto].
  - intros x v sz [->|H]; [destruct He|eauto].
  - intro v. rewrite E2. apply C1.
  - intro x. rewrite E3. apply N1.
  - intros Hc n Hn Hv. rewrite E3. auto.
  - intros x v sz [->|H]; [destruct He|]. rewrite E1. apply (VD x v sz H).
Qed.

Lemma DInv_log nodes lg nn nd closed e :
  DInv nodes lg nn nd closed -> dquiet e -> DInv nodes (e :: lg) nn nd closed.
Proof.
  intros [DF DN DI DR DL DRF DA DG] He.
  assert (forall k, cdr k (e :: lg) = cdr k lg) as E4.
  { intro k. unfold cdr. rewrite count_ev_cons. destruct e; try contradiction; reflexivity. }
  split; auto.
  - intros n d Hn Hd. rewrite E4. eauto.
  - intro d. rewrite E4. apply DL.
  - intros d [->|H]; [destruct He|eauto].
  - intros d Hd. rewrite E4. auto.
  - intros d x [->|H]; [destruct He|eauto].
Qed.

(* what the value clauses, resp. the delFunc clauses, see of a node *)
Definition sameV (n m : node) : Prop :=
  n_id m = n_id n /\ n_val m = n_val n /\ (n_val n <> None -> n_size m = n_size n).
Definition sameD (closed : bool) (n m : node) : Prop :=
  n_id m = n_id n /\ n_dels m = n_dels n /\ (closed = true -> n_val n = None -> n_val m = None).

Lemma upd_id_rel (R : node -> node -> Prop) x f nodes :
  (forall n, R n n) -> (forall n, In n nodes -> n_id n = x -> R n (f n)) ->
  (forall m, In m (upd_id x f nodes) -> exists m0, In m0 nodes /\ R m0 m) /\
  (forall m0, In m0 nodes -> exists m, In m (upd_id x f nodes) /\ R m0 m).
Proof.
  intros Hr Hs. split.
  - intros m Hm. apply in_upd in Hm. destruct Hm as (m0 & Hm0 & ->). exists m0. split; auto.
    destruct (N.eqb_spec (n_id m0) x); auto.
  - intros m0 Hm0. exists (if n_id m0 =? x then f m0 else m0). split; [apply in_upd; eauto|].
    destruct (N.eqb_spec (n_id m0) x); auto.
Qed.

Lemma VInv_upd nodes lg nv nn closed x f :
  VInv nodes lg nv nn closed -> (forall n, In n nodes -> n_id n = x -> sameV n (f n)) ->
  VInv (upd_id x f nodes) lg nv nn closed.
Proof.
  intros [VL VI FL FF CF C1 N1 CN VD] Hs.
  destruct (upd_id_rel sameV x f nodes) as [Back Forth]; [unfold sameV; auto|exact Hs|].
  split; auto.
  - intros m v Hm Hv. destruct (Back m Hm) as (m0 & H0 & i & a & b). rewrite i, b by congruence. apply VL; congruence.
  - intros m m' v Hm Hm' Hv Hv'. destruct (Back m Hm) as (m0 & H0 & i & a & b).
    destruct (Back m' Hm') as (m1 & H1 & i' & a' & b'). rewrite i, i'. apply (VI m0 m1 v); auto; congruence.
  - intros Hc m Hm Hv. destruct (Back m Hm) as (m0 & H0 & i & a & b). rewrite i. apply CN; congruence.
  - intros y v sz Hin. destruct (VD y v sz Hin) as [|(m0 & H0 & i & a)]; auto. right.
    destruct (Forth m0 H0) as (m & Hm & i' & a' & _). exists m. split; auto. split; congruence.
Qed.

Lemma DInv_upd nodes lg nn nd closed x f :
  DInv nodes lg nn nd closed -> (forall n, In n nodes -> n_id n = x -> sameD closed n (f n)) ->
  DInv (upd_id x f nodes) lg nn nd closed.
Proof.
  intros [DF DN DI DR DL DRF DA DG] Hs.
  destruct (upd_id_rel (sameD closed) x f nodes) as [Back Forth]; [unfold sameD; auto|exact Hs|].
  split; auto.
  - intros m d Hm Hd. destruct (Back m Hm) as (m0 & H0 & i & c & a). rewrite c in Hd. eauto.
  - intros m Hm. destruct (Back m Hm) as (m0 & H0 & i & c & a). rewrite c. eauto.
  - intros m m' d Hm Hm' Hd Hd'. destruct (Back m Hm) as (m0 & H0 & i & c & a).
    destruct (Back m' Hm') as (m1 & H1 & i' & c' & a'). rewrite i, i'. rewrite c in Hd. rewrite c' in Hd'. apply (DI m0 m1 d); auto.
  - intros m d Hm Hd. destruct (Back m Hm) as (m0 & H0 & i & c & a). rewrite c in Hd. eauto.
  - intros d Hd. destruct (DA d Hd) as [|(m0 & H0 & Hin)]; auto. right.
    destruct (Forth m0 H0) as (m & Hm & i' & c' & _). exists m. split; auto. congruence.
  - intros d y Hin. destruct (DG d y Hin) as (A & B & C). split; auto. split; auto. intros m Hm Hy.
    destruct (Back m Hm) as (m0 & H0 & i & c & a). rewrite c.
    destruct (C m0 H0) as [|(v0 & d0 & cl)]; [congruence|auto|right; auto].
Qed.

(* updates that leave value, size and delFuncs of every node alone *)
Lemma LInv_upd_same nodes lg nv nn nd closed x f :
  LInv nodes lg nv nn nd closed -> pres f ->
  (forall n, In n nodes -> n_id n = x ->
     n_val (f n) = n_val n /\ n_dels (f n) = n_dels n /\ (n_val n <> None -> n_size (f n) = n_size n)) ->
  LInv (upd_id x f nodes) lg nv nn nd closed.
Proof.
  intros HL Hf Hs. apply LInv_split in HL. destruct HL as [HV HD]. apply LInv_split.
  split; [apply VInv_upd|apply DInv_upd]; auto; intros n Hn Hx; destruct (Hs n Hn Hx) as (a & b & c);
    destruct (Hf n) as (i & _); repeat split; auto; congruence.
Qed.

(* events that no counter and no membership clause looks at *)
Definition neutral (e : event) : Prop :=
  match e with EvCreate _ _ _ | EvSetNil _ => True | _ => False end.

Lemma LInv_neutral nodes lg nv nn nd closed e :
  LInv nodes lg nv nn nd closed -> neutral e -> LInv nodes (e :: lg) nv nn nd closed.
Proof.
  intros HL He. apply LInv_split in HL. destruct HL as [HV HD]. apply LInv_split.
  split; [apply VInv_log|apply DInv_log]; auto; destruct e; try contradiction; exact I.
Qed.

Lemma cf_zero_fresh lg nv v : (forall w f, In (EvFinal w f) lg -> w < nv) -> nv <= v -> cf v lg = 0%nat.
Proof.
  intros H Hv. apply count_ev_zero. intros e He. destruct e; auto. cbn. apply N.eqb_neq.
  apply H in He. lia.
Qed.
Lemma ccv_zero_fresh lg nv nn v : (forall x w sz, In (EvConstruct x w sz) lg -> w < nv /\ x < nn) -> nv <= v -> ccv v lg = 0%nat.
Proof.
  intros H Hv. apply count_ev_zero. intros e He. destruct e; auto. cbn. apply N.eqb_neq.
  apply H in He. lia.
Qed.
Lemma ccn_zero_fresh lg nv nn y : (forall x w sz, In (EvConstruct x w sz) lg -> w < nv /\ x < nn) -> nn <= y -> ccn y lg = 0%nat.
Proof.
  intros H Hv. apply count_ev_zero. intros e He. destruct e; auto. cbn. apply N.eqb_neq.
  apply H in He. lia.
Qed.
Lemma cdr_zero_fresh lg nd d : (forall w, In (EvDelRun w) lg -> w < nd) -> nd <= d -> cdr d lg = 0%nat.
Proof.
  intros H Hv. apply count_ev_zero. intros e He. destruct e; auto. cbn. apply N.eqb_neq.
  apply H in He. lia.
Qed.

Lemma LInv_insert nodes lg nv nn nd closed ns key :
  LInv nodes lg nv nn nd closed -> (forall n, In n nodes -> n_id n < nn) ->
  LInv (insert_node (mkNode ns key nn 1%Z None 0 [] LAbsent) nodes) lg nv (nn + 1) nd closed.
Proof.
  intros [VL VI FL FF CF C1 N1 CN VD DF DN DI DR DL DRF DA DG] F.
  set (x := mkNode ns key nn 1%Z None 0 [] LAbsent).
  assert (forall m, In m (insert_node x nodes) -> m = x \/ In m nodes) as B by (intro m; apply in_insert).
  split.
  - intros m v Hm Hv. destruct (B m Hm) as [->|H]; [discriminate|auto].
  - intros m m' v Hm Hm' Hv Hv'. destruct (B m Hm) as [->|H]; [discriminate|].
    destruct (B m' Hm') as [->|H']; [discriminate|eauto].
  - exact FL.
  - exact FF.
  - intros y v sz H. destruct (CF y v sz H). split; auto. lia.
  - exact C1.
  - exact N1.
  - intros Hc m Hm Hv. destruct (B m Hm) as [->|H]; auto. cbn. eapply ccn_zero_fresh; eauto. lia.
  - intros y v sz H. destruct (VD y v sz H) as [|(m & Hm & a & b)]; auto. right. exists m. split; auto.
    apply in_insert. auto.
  - intros m d Hm Hd. destruct (B m Hm) as [->|H]; [destruct Hd|eauto].
  - intros m Hm. destruct (B m Hm) as [->|H]; [constructor|eauto].
  - intros m m' d Hm Hm' Hd Hd'. destruct (B m Hm) as [->|H]; [destruct Hd|].
    destruct (B m' Hm') as [->|H']; [destruct Hd'|eauto].
  - intros m d Hm Hd. destruct (B m Hm) as [->|H]; [destruct Hd|eauto].
  - exact DL.
  - exact DRF.
  - intros d Hd. destruct (DA d Hd) as [|(m & Hm & a)]; auto. right. exists m. split; auto. apply in_insert. auto.
  - intros d y H. destruct (DG d y H) as (a & b & c). split; [lia|]. split; auto. intros m Hm Hy.
    destruct (B m Hm) as [->|H']; [cbn in Hy; lia|auto].
Qed.

Lemma LInv_construct nodes lg nv nn nd x sz n :
  LInv nodes lg nv nn nd false -> NoDup (ids nodes) -> In n nodes -> n_id n = x -> n_val n = None -> x < nn ->
  LInv (upd_id x (nd_val (Some nv) sz) nodes) (EvConstruct x nv sz :: lg) (nv + 1) nn nd false.
Proof.
  intros HL Hnd Hn Hx Hv Hxn. apply LInv_split in HL. destruct HL as [[VL VI FL FF CF C1 N1 CN VD] HD].
  apply LInv_split. split.
  2:{ apply DInv_log; [|exact I]. apply DInv_upd; auto. intros m _ _. repeat split; discriminate. }
  set (f := nd_val (Some nv) sz).
  pose proof (fun m => in_upd_cases x f nodes n m Hnd Hn Hx) as B.
  assert (forall k, cf k (EvConstruct x nv sz :: lg) = cf k lg) as E1 by (intro k; unfold cf; now rewrite count_ev_cons).
  assert (forall k, ccv k (EvConstruct x nv sz :: lg) = ((if (nv =? k)%N then 1 else 0) + ccv k lg)%nat) as E2
    by (intro k; unfold ccv; now rewrite count_ev_cons).
  assert (forall k, ccn k (EvConstruct x nv sz :: lg) = ((if (x =? k)%N then 1 else 0) + ccn k lg)%nat) as E3
    by (intro k; unfold ccn; now rewrite count_ev_cons).
  assert (forall m v, In m nodes -> n_val m = Some v -> v < nv) as Vold.
  { intros m v Hm Hmv. destruct (VL m v Hm Hmv) as [_ Hin]. apply CF in Hin. tauto. }
  split.
  - intros m v Hm Hmv. rewrite E1. destruct (B m Hm) as [->|[H ne]].
    + cbn in Hmv. inversion Hmv; subst v. split; [eapply cf_zero_fresh; eauto; lia|]. left. cbn. now rewrite Hx.
    + destruct (VL m v H Hmv). split; auto. now right.
  - intros m m' v Hm Hm' Hmv Hmv'. destruct (B m Hm) as [->|[H ne]]; destruct (B m' Hm') as [->|[H' ne']]; auto.
    + cbn in Hmv. inversion Hmv; subst v. apply Vold in Hmv'; auto. lia.
    + cbn in Hmv'. inversion Hmv'; subst v. apply Vold in Hmv; auto. lia.
    + eauto.
  - intro v. rewrite E1. auto.
  - intros v f' [e|H]; [discriminate|]. apply FF in H. lia.
  - intros y v sz' [e|H].
    + inversion e; subst. split; auto. lia.
    + apply CF in H. split; [lia|tauto].
  - intro v. rewrite E2. destruct (N.eqb_spec nv v) as [<-|ne]; [|apply C1].
    assert (ccv nv lg = 0%nat) as -> by (eapply ccv_zero_fresh; eauto; lia). cbn. lia.
  - intro y. rewrite E3. destruct (N.eqb_spec x y) as [<-|ne]; [|apply N1].
    rewrite <- Hx, (CN eq_refl n Hn Hv). cbn. lia.
  - intros _ m Hm Hmv. rewrite E3. destruct (B m Hm) as [->|[H ne]]; [discriminate|].
    apply N.eqb_neq in ne. rewrite N.eqb_sym, ne. cbn. apply (CN eq_refl); auto.
  - intros y v sz' [e|H].
    + inversion e; subst. right. exists (f n). split; auto. now apply in_upd_same.
    + rewrite E1. destruct (VD y v sz' H) as [|(m & Hm & a & b)]; auto. right. exists m. split; auto.
      apply in_upd_other; auto. intro e. assert (m = n) by (eapply same_id_eq; eauto; congruence). congruence.
Qed.

(* finalisation of node n: its value (if any) is released, its delFuncs run; afterwards the node is
   either gone from the list or stays (closed cache) without value and delFuncs *)
Lemma LInv_fin nodes nodes' lg nv nn nd closed n f :
  LInv nodes lg nv nn nd closed -> NoDup (ids nodes) -> In n nodes ->
  (forall m, In m nodes' -> (In m nodes /\ n_id m <> n_id n) \/
                            (n_id m = n_id n /\ n_val m = None /\ n_dels m = [] /\ closed = true)) ->
  (forall m0, In m0 nodes -> n_id m0 <> n_id n -> In m0 nodes') ->
  LInv nodes' (fin_log n f lg) nv nn nd closed.
Proof.
  intros [VL VI FL FF CF C1 N1 CN VD DF DN DI DR DL DRF DA DG] Hnd Hn B Fo.
  assert (forall v, n_val n = Some v -> cf v lg = 0%nat) as Vn by (intros v Hv; apply (VL n v Hn Hv)).
  split.
  - intros m v Hm Hv. destruct (B m Hm) as [[H ne]|(_ & e & _)]; [|congruence].
    rewrite fin_cf, fin_in_construct. destruct (opt_is v (n_val n)) eqn:E.
    + apply opt_is_true in E. exfalso. apply ne. apply (VI m n v); auto.
    + apply (VL m v H Hv).
  - intros m m' v Hm Hm' Hv Hv'. destruct (B m Hm) as [[H ne]|(_ & e & _)]; [|congruence].
    destruct (B m' Hm') as [[H' ne']|(_ & e' & _)]; [|congruence]. apply (VI m m' v); auto.
  - intro v. rewrite fin_cf. destruct (opt_is v (n_val n)) eqn:E.
    + apply opt_is_true in E. rewrite (Vn v E). cbn. lia.
    + cbn. apply FL.
  - intros v f' H. apply fin_in in H. destruct H as [(d & _ & e)|[(w & Hw & e)|H]]; [discriminate| |eauto].
    inversion e; subst. destruct (VL n w Hn Hw) as [_ Hin]. apply CF in Hin. tauto.
  - intros x v sz H. apply fin_in_construct in H. eauto.
  - intro v. rewrite fin_ccv. apply C1.
  - intro x. rewrite fin_ccn. apply N1.
  - intros Hc m Hm Hv. rewrite fin_ccn. destruct (B m Hm) as [[H ne]|(_ & _ & _ & e)]; [|congruence]. auto.
  - intros x v sz H. apply fin_in_construct in H. rewrite fin_cf. destruct (VD x v sz H) as [E1|(m & Hm & a & b)].
    + left. destruct (opt_is v (n_val n)) eqn:E; [|exact E1]. apply opt_is_true in E. rewrite (Vn v E) in E1. discriminate.
    + destruct (N.eq_dec (n_id m) (n_id n)) as [e|ne].
      * left. assert (m = n) as -> by (eapply same_id_eq; eauto).
        rewrite (proj2 (opt_is_true v (n_val n)) b), (Vn v b). reflexivity.
      * right. exists m. split; auto.
  - intros m d Hm Hd. destruct (B m Hm) as [[H ne]|(_ & _ & e & _)]; [eauto|]. rewrite e in Hd. destruct Hd.
  - intros m Hm. destruct (B m Hm) as [[H ne]|(_ & _ & e & _)]; [eauto|]. rewrite e. constructor.
  - intros m m' d Hm Hm' Hd Hd'. destruct (B m Hm) as [[H ne]|(_ & _ & e & _)]; [|rewrite e in Hd; destruct Hd].
    destruct (B m' Hm') as [[H' ne']|(_ & _ & e' & _)]; [|rewrite e' in Hd'; destruct Hd']. apply (DI m m' d); auto.
  - intros m d Hm Hd. destruct (B m Hm) as [[H ne]|(_ & _ & e & _)]; [|rewrite e in Hd; destruct Hd].
    rewrite fin_cdr_notin; [eauto|]. intro Hin. apply ne. apply (DI m n d); auto.
  - intro d. destruct (in_dec N.eq_dec d (n_dels n)) as [Hin|Hnin].
    + rewrite fin_cdr_in; auto. rewrite (DR n d Hn Hin). lia.
    + rewrite fin_cdr_notin; auto.
  - intros d H. apply fin_in in H. destruct H as [(d' & Hd' & e)|[(w & _ & e)|H]]; [|discriminate|eauto].
    inversion e; subst. eauto.
  - intros d Hd. destruct (in_dec N.eq_dec d (n_dels n)) as [Hin|Hnin].
    + left. rewrite fin_cdr_in; auto. rewrite (DR n d Hn Hin). reflexivity.
    + rewrite fin_cdr_notin; auto. destruct (DA d Hd) as [|(m & Hm & a)]; auto. right. exists m. split; auto.
      apply Fo; auto. intro e. assert (m = n) as -> by (eapply same_id_eq; eauto). tauto.
  - intros d x H. apply fin_in_delreg in H. destruct (DG d x H) as (a & b & c). split; auto. split; auto.
    intros m Hm Hx. destruct (B m Hm) as [[H' ne]|(_ & e1 & e2 & e3)]; auto.
Qed.

Lemma LInv_delreg nodes lg nv nn nd x n :
  LInv nodes lg nv nn nd false -> NoDup (ids nodes) -> In n nodes -> n_id n = x -> x < nn ->
  LInv (upd_id x (nd_dels (n_dels n ++ [nd])) nodes) (EvDelReg nd x :: lg) nv nn (nd + 1) false.
Proof.
  intros HL Hnd Hn Hx Hxn. apply LInv_split in HL. destruct HL as [HV [DF DN DI DR DL DRF DA DG]].
  apply LInv_split. split.
  { apply VInv_log; [|exact I]. apply VInv_upd; auto. intros m _ _. repeat split. }
  set (f := nd_dels (n_dels n ++ [nd])).
  pose proof (fun m => in_upd_cases x f nodes n m Hnd Hn Hx) as B.
  assert (In (f n) (upd_id x f nodes)) as Hfn by (now apply in_upd_same).
  assert (forall k, cdr k (EvDelReg nd x :: lg) = cdr k lg) as E4 by (intro k; unfold cdr; now rewrite count_ev_cons).
  assert (~ In nd (n_dels n)) as Hfresh by (intro H; apply (DF n nd Hn) in H; lia).
  split.
  - intros m d Hm Hd. destruct (B m Hm) as [->|[H ne]].
    + cbn in Hd. apply in_app_iff in Hd. destruct Hd as [Hd|[<-|[]]]; [apply (DF n d Hn) in Hd|]; lia.
    + apply (DF m d H) in Hd. lia.
  - intros m Hm. destruct (B m Hm) as [->|[H ne]]; [|eauto]. cbn. apply ListLemmas.NoDup_app_intro; auto.
    + constructor; [intros []|constructor].
    + intros y Hy [<-|[]]. tauto.
  - intros m m' d Hm Hm' Hd Hd'.
    assert (forall k, In k nodes -> n_id k <> x -> In d (n_dels k) -> In d (n_dels (f n)) -> False) as Excl.
    { intros k Hk nek Hdk Hdn. cbn in Hdn. apply in_app_iff in Hdn. destruct Hdn as [Hdn|[<-|[]]].
      - apply nek. rewrite <- Hx. apply (DI k n d); auto.
      - apply (DF k nd Hk) in Hdk. lia. }
    destruct (B m Hm) as [->|[H ne]]; destruct (B m' Hm') as [->|[H' ne']]; auto.
    + exfalso. eapply Excl; eauto.
    + exfalso. eapply Excl; eauto.
    + apply (DI m m' d); auto.
  - intros m d Hm Hd. rewrite E4. destruct (B m Hm) as [->|[H ne]]; [|eauto].
    cbn in Hd. apply in_app_iff in Hd. destruct Hd as [Hd|[<-|[]]]; [eauto|].
    eapply cdr_zero_fresh; eauto. lia.
  - intro d. rewrite E4. apply DL.
  - intros d [e|H]; [discriminate|]. apply DRF in H. lia.
  - intros d Hd. rewrite E4. destruct (N.eq_dec d nd) as [->|ne].
    + right. exists (f n). split; auto. cbn. apply in_app_iff. right. now left.
    + destruct (DA d) as [|(m & Hm & a)]; [lia|auto|]. right.
      destruct (N.eq_dec (n_id m) x) as [e|ne'].
      * exists (f n). split; auto. assert (m = n) as <- by (eapply same_id_eq; eauto; congruence).
        cbn. apply in_app_iff. now left.
      * exists m. split; auto. now apply in_upd_other.
  - intros d y [e|H].
    + inversion e; subst. split; auto. split; [lia|]. intros m Hm Hy. left.
      destruct (B m Hm) as [->|[H' ne]]; [|tauto]. cbn. apply in_app_iff. right. now left.
    + destruct (DG d y H) as (a & b & c). split; auto. split; [lia|]. intros m Hm Hy.
      destruct (B m Hm) as [->|[H' ne]]; auto.
      destruct (c n Hn) as [Hd|(_ & _ & ?)]; [exact Hy| |discriminate]. left. cbn. apply in_app_iff. now left.
Qed.

Lemma LInv_delrun_now nodes lg nv nn nd closed :
  LInv nodes lg nv nn nd closed -> LInv nodes (EvDelRun nd :: lg) nv nn (nd + 1) closed.
Proof.
  intros HL. apply LInv_split in HL. destruct HL as [HV [DF DN DI DR DL DRF DA DG]].
  apply LInv_split. split; [apply VInv_log; [exact HV|exact I]|].
  assert (forall k, cdr k (EvDelRun nd :: lg) = ((if (nd =? k)%N then 1 else 0) + cdr k lg)%nat) as E4
    by (intro k; unfold cdr; now rewrite count_ev_cons).
  assert (cdr nd lg = 0%nat) as Z0 by (eapply cdr_zero_fresh; eauto; lia).
  split.
  - intros m d Hm Hd. apply (DF m d Hm) in Hd. lia.
  - exact DN.
  - exact DI.
  - intros m d Hm Hd. rewrite E4. destruct (N.eqb_spec nd d) as [<-|ne].
    + apply (DF m nd Hm) in Hd. lia.
    + cbn. eauto.
  - intro d. rewrite E4. destruct (N.eqb_spec nd d) as [<-|ne]; [rewrite Z0; cbn; lia|cbn; apply DL].
  - intros d [e|H]; [inversion e; lia|]. apply DRF in H. lia.
  - intros d Hd. rewrite E4. destruct (N.eqb_spec nd d) as [<-|ne].
    + left. rewrite Z0. reflexivity.
    + cbn. apply DA. lia.
  - intros d y [e|H]; [discriminate|]. destruct (DG d y H) as (a & b & c). split; auto. split; [lia|auto].
Qed.

Lemma LInv_close nodes lg nv nn nd :
  LInv nodes lg nv nn nd false -> LInv nodes lg nv nn nd true.
Proof.
  intros [VL VI FL FF CF C1 N1 CN VD DF DN DI DR DL DRF DA DG]. split; auto; try (intros; discriminate).
  intros d x H. destruct (DG d x H) as (a & b & c). split; auto. split; auto. intros m Hm Hx.
  destruct (c m Hm Hx) as [|(_ & _ & ?)]; [auto|discriminate].
Qed.
