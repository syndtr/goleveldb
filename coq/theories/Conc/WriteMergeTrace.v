(* Conc/WriteMergeTrace.v — the event acceptor of Corr/C10Run.v only ever moves by [step]:
   an accepted event trace is the visible part of a run of the transition system. *)
From Coq Require Import List Bool Arith.
From GL Require Import Conc.WriteMerge Conc.WriteMergeProofs Gen.InstC10 Corr.C10Run.
Import ListNotations.

Lemma run_app mp l1 : forall s l2,
  run mp s (l1 ++ l2) = match run mp s l1 with Some s1 => run mp s1 l2 | None => None end.
Proof. induction l1; simpl; intros; auto. destruct (step mp s a); auto. Qed.

Lemma run_trans mp s l1 s1 l2 s2 : run mp s l1 = Some s1 -> run mp s1 l2 = Some s2 -> run mp s (l1 ++ l2) = Some s2.
Proof. intros H1 H2. rewrite run_app, H1. auto. Qed.

Lemma runa_sound x l y : runa x l = Some y -> run wmp (st x) l = Some (st y).
Proof. unfold runa. destruct (run wmp (st x) l); intros H; inversion H; subst; auto. Qed.

(* forced acknowledgements are a run of AAck actions *)
Lemma force_acks_run (P : action -> bool) : (forall l n, P (AAck l n) = true) ->
  forall f l s s', force_acks f l s = Some s' -> exists acts, run wmp s acts = Some s' /\ forallb P acts = true.
Proof.
  intros HP. induction f; cbn [force_acks]; intros l s s' H.
  - inversion H; subst. exists []. auto.
  - destruct (getw s l); try discriminate. destruct (pc w); try discriminate.
    destruct (i <? lmerged c).
    + destruct (find_w is_waitack s); try discriminate.
      destruct (step wmp s (AAck l n)) eqn:E; try discriminate.
      destruct (IHf _ _ _ H) as [acts [Ha Hi]]. exists (AAck l n :: acts). cbn [run forallb]. rewrite E, HP. auto.
    + inversion H; subst. exists []. auto.
Qed.

Lemma force_acks_sound f : forall l s s', force_acks f l s = Some s' -> exists acts, run wmp s acts = Some s'.
Proof.
  intros l s s' H. destruct (force_acks_run (fun _ => true) (fun _ _ => eq_refl) f l s s' H) as [acts [Ha _]]. eauto.
Qed.

Lemma feed_sound x e y : feed x e = Some y -> exists acts, run wmp (st x) acts = Some (st y).
Proof.
  intros H. destruct e; unfold feed in H; dm;
  repeat match goal with
  | H : Some _ = Some _ |- _ => inversion H; subst; clear H
  end;
  repeat match goal with
  | H : runa _ _ = Some _ |- _ => apply runa_sound in H; cbn [st mk] in H
  | H : force_acks _ _ _ = Some _ |- _ => apply force_acks_sound in H; destruct H as [? H]
  end; cbn [st mk] in *;
  try (eexists; eassumption);
  try (exists []; reflexivity);
  try (eexists; eapply run_trans; eassumption).
Qed.

Theorem feed_all_sound l : forall x y, feed_all x l = Some y -> exists acts, run wmp (st x) acts = Some (st y).
Proof.
  induction l; simpl; intros x y H.
  - inversion H; subst. exists []. auto.
  - destruct (feed x a) eqn:E; try discriminate.
    destruct (feed_sound _ _ _ E) as [a1 H1]. destruct (IHl _ _ H) as [a2 H2].
    exists (a1 ++ a2). eapply run_trans; eauto.
Qed.

(* an accepted case is a reachable, quiescent state of the system with n writers *)
Theorem run_case_sound n evs files complete : run_case (CTrace n evs files complete) = true ->
  exists s, reachable wmp n s /\ quiescent s = true.
Proof.
  unfold run_case. destruct (feed_all (mk (init n) 0 0 []) evs) eqn:E; try discriminate.
  intros H. apply andb_true_iff in H. destruct H as [Hq _].
  destruct (feed_all_sound _ _ _ E) as [acts Ha]. exists (st a). split; auto. exists acts. exact Ha.
Qed.
