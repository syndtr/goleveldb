(* Conc/RefLoopProofs.v — the reference loop keeps the invariant Inv (Conc/RefLoopInv.v) under every
   event the environment protocol allows, for every expiry oracle; the three property theorems
   follow.  Induction over arbitrary event lists, no bound. *)
From Coq Require Import NArith List Bool Lia Permutation.
From GL Require Import Conc.RefLoop Conc.RefLoopLemmas Conc.RefLoopInv Conc.RefLoopChain Conc.RefLoopEnv.
Import ListNotations.
Open Scope N_scope.

Ltac sproj := cbn [fileRef ref deltas referenced released abandoned next last
                  skip_abandoned converted pop_released set_fileRef].

Lemma Un_step_neq : forall ch nx f, (forall c, In c ch -> v_id c <> nx) -> (Un ch nx f <-> Un ch (nx + 1) f).
Proof.
  intros ch nx f H. unfold Un. split; intros (x & Hx & Ha & Hf); exists x; repeat split; auto.
  - rewrite applied_step_neq; auto.
  - rewrite <- applied_step_neq; auto.
Qed.

Lemma step_skip : forall e s rm,
  Inv e s rm -> smem (abandoned s) (next s) = true -> Inv e (skip_abandoned s) rm.
Proof.
  intros e s rm (Hwf & (M & Mnx & Mlast) & (U & b & A & Hch & HA & HU & Hcnt) & Hacct) Hab.
  pose proof (M (next s)) as Mn.
  destruct (find_ver (e_chain e) (next s)) eqn:Hnone; injection Mn as R1 R2 R3 R4 R5; [congruence|].
  rewrite Hab, N.leb_refl in R5. symmetry in R5. apply N.ltb_lt in R5.
  assert (Hids : forall c, In c (e_chain e) -> v_id c <> next s) by (apply find_ver_None; auto).
  split; [exact Hwf|]. split; [|split].
  - split; [|split; [unfold skip_abandoned; sproj; lia|exact Mlast]].
    apply (maps_update (next s)) with (1 := M).
    + intros v Hne. unfold entry_at, skip_abandoned; sproj. rewrite smem_sdel_neq by auto. reflexivity.
    + intros v. apply entry_of_step.
    + unfold entry_at, skip_abandoned; sproj. rewrite R1, R2, R3, R4, smem_sdel_eq, Hnone. cbn.
      rewrite leb_passed. reflexivity.
  - exists U, b, A. unfold skip_abandoned; sproj. split; [exact Hch|]. split; [|split].
    + eapply Forall_impl; [|exact HA]. intros; apply applied_mono; auto.
    + rewrite Forall_forall in *. intros c Hc. rewrite applied_step_neq; auto.
      apply Hids. rewrite Hch. apply in_app_or in Hc. apply in_or_app.
      destruct Hc as [Hc|[<-|[]]]; auto. right; left; auto.
    + intros f. rewrite Hcnt. rewrite holds_step_neq; auto.
  - unfold skip_abandoned; sproj. eapply acct_iff; [|exact Hacct]. intros f. apply Un_step_neq; auto.
Qed.

Lemma applied_only_at : forall ch c nx x, chain_wf ch -> In c ch -> v_id c = nx -> In x ch ->
  applied (nx + 1) x = true -> applied nx x = true \/ x = c.
Proof.
  intros ch c nx x H Hc Hid Hx Ha. destruct (N.eq_dec (v_id x) nx) as [E|E].
  - right. apply (chain_id_inj ch); auto. congruence.
  - left. rewrite <- applied_step_neq; auto.
Qed.

Lemma base_advance : forall ch seen U b A d nx fr rm (H : N -> N),
  chain_wf ch -> head_ok ch -> (forall c, In c ch -> incl (v_files c) seen) ->
  ch = U ++ b :: A ->
  Forall (fun c => applied nx c = true) A ->
  Forall (fun c => applied nx c = false) (U ++ [b]) ->
  v_delta b = Some d -> v_id b = nx ->
  (forall f, cnt fr f = ind (counted b) f + H f) ->
  acct fr rm seen (Un ch nx) ->
  exists U' n, U = U' ++ [n] /\
    exists fr' out, applyDelta fr d = Ok (fr', out)
      /\ (forall f, cnt fr' f = ind (counted n) f + H f)
      /\ acct fr' (rm ++ out) seen (Un ch (nx + 1))
      /\ Forall (fun c => applied (nx + 1) c = true) (b :: A)
      /\ Forall (fun c => applied (nx + 1) c = false) (U' ++ [n]).
Proof.
  intros ch seen U b A d nx fr rm H Hwf Hhd Hseen Hch HA HU Hd Hid Hcnt Hacct.
  assert (HUne : U <> []).
  { intros ->. cbn in Hch. subst ch. apply head_nodelta in Hhd. destruct Hhd as [Hn _]. congruence. }
  destruct (exists_last HUne) as (U' & n & HUeq). subst U.
  exists U', n. split; [reflexivity|].
  assert (Hwf' := Hwf). rewrite Hch in Hwf'.
  assert (Hch' : ch = U' ++ n :: b :: A) by (rewrite Hch, <- app_assoc; reflexivity).
  assert (Hwf2 := Hwf). rewrite Hch' in Hwf2.
  destruct (chain_wf_adj U' n b A Hwf2) as [Htr _]. rewrite Hd in Htr.
  assert (Hbin : In b ch) by (rewrite Hch; apply in_elt).
  assert (Hb' : applied (nx + 1) b = true).
  { unfold applied, has_delta. rewrite Hd. cbn. apply N.ltb_lt. lia. }
  assert (Honly : forall x, In x ch -> applied (nx + 1) x = true -> applied nx x = true \/ x = b).
  { intros x Hx. apply (applied_only_at ch b); auto. }
  (* the versions above b have greater ids, so nothing changes for them *)
  assert (HU'un : Forall (fun c => applied (nx + 1) c = false) (U' ++ [n])).
  { rewrite Forall_forall in *. intros x Hx. pose proof (chain_wf_sorted _ b A Hwf' x Hx).
    rewrite applied_step_neq by lia. apply HU, in_or_app. auto. }
  assert (Hn_in : In n (U' ++ [n])) by (apply in_or_app; right; left; auto).
  assert (S1 : forall f, In f (v_files b) -> Un ch nx f).
  { intros f Hf. exists b. rewrite Forall_forall in HU. repeat split; auto. apply HU, in_or_app. right; left; auto. }
  assert (S2 : forall f, In f (v_files n) -> Un ch (nx + 1) f).
  { intros f Hf. exists n. rewrite Forall_forall in HU'un. repeat split; auto. rewrite Hch. apply in_or_app. auto. }
  assert (S3 : forall f, Un ch (nx + 1) f -> Un ch nx f).
  { intros f (x & Hx & Ha & Hf). exists x. repeat split; auto.
    destruct (applied nx x) eqn:E; auto. rewrite (applied_mono _ _ E) in Ha. discriminate. }
  assert (S4 : forall f, Un ch nx f -> Un ch (nx + 1) f \/ In f (v_files b)).
  { intros f (x & Hx & Ha & Hf). destruct (applied (nx + 1) x) eqn:E.
    + destruct (Honly x Hx E) as [Ha'| ->]; [congruence|]. right; auto.
    + left. exists x. auto. }
  assert (S5 : forall f, In f (v_files b) -> ~ In f (v_files n) -> ~ Un ch (nx + 1) f).
  { intros f Hfb Hfn (x & Hx & Ha & Hf).
    rewrite Hch' in Hx. apply in_app_or in Hx. destruct Hx as [Hx|[<-|[<-|Hx]]].
    + apply (gone_adj U' n b A f Hwf2 Hfb Hfn x Hx Hf).
    + contradiction.
    + congruence.
    + rewrite Forall_forall in HA. rewrite (applied_mono nx x) in Ha; [discriminate|apply HA; auto]. }
  assert (S6 : incl (v_files b) seen) by (apply Hseen; auto).
  destruct (delta_core fr rm seen (Un ch nx) (Un ch (nx + 1)) H b d n Hacct Htr Hcnt S1 S2 S3 S4 S5 S6)
    as (fr' & out & Happ & Hc' & Hacct').
  exists fr', out. split; [exact Happ|]. split; [exact Hc'|]. split; [exact Hacct'|]. split; [|exact HU'un].
  constructor; auto. eapply Forall_impl; [|exact HA]. intros x. apply applied_mono.
Qed.

(* the version whose id is [next] is the oldest unapplied version b, or it is the current version
   (b, without its delta yet, right behind it) *)
Lemma locate : forall ch U b A c nx,
  chain_wf ch -> head_ok ch -> ch = U ++ b :: A ->
  Forall (fun c => applied nx c = true) A ->
  Forall (fun c => applied nx c = false) (U ++ [b]) ->
  In c ch -> v_id c = nx ->
  c = b \/ v_delta c = None.
Proof.
  intros ch U b A c nx Hwf Hhd Hch HA HU Hc Hid.
  rewrite Hch in Hc. apply in_app_or in Hc. destruct Hc as [Hc|[Hc|Hc]]; auto.
  - right. apply in_split in Hc. destruct Hc as (X & M & ->).
    rewrite Hch, <- app_assoc in Hwf, Hhd. cbn in Hwf, Hhd.
    pose proof (chain_wf_older_lt X c (M ++ b :: A) Hwf b (in_elt b M A)) as Hlt.
    assert (Hbd : v_delta b = None).
    { rewrite Forall_forall in HU. assert (Hu : applied nx b = false) by (apply HU; apply in_or_app; right; left; auto).
      unfold applied in Hu. apply andb_false_iff in Hu. destruct Hu as [Hu|Hu].
      - unfold has_delta in Hu. destruct (v_delta b); [discriminate|auto].
      - apply N.ltb_ge in Hu. lia. }
    change (X ++ c :: M ++ b :: A) with (X ++ (c :: M) ++ b :: A) in Hhd. rewrite app_assoc in Hhd.
    destruct (nodelta_pos _ b A Hhd Hbd) as [E|(h & E)]; [destruct X; discriminate|].
    destruct X as [|x X]; [|destruct X; discriminate]. injection E as <- ->. cbn in Hhd. tauto.
  - exfalso. rewrite Forall_forall in HA. specialize (HA c Hc). unfold applied in HA.
    apply andb_true_iff in HA. destruct HA as [_ HA]. apply N.ltb_lt in HA. lia.
Qed.

Lemma step_pop : forall e s rm od,
  Inv e s rm -> smem (abandoned s) (next s) = false -> mget (released s) (next s) = Some od ->
  exists fr2 out,
    (match od with Some d => applyDelta (fileRef s) d | None => Ok (fileRef s, []) end) = Ok (fr2, out)
    /\ Inv e (pop_released s fr2) (rm ++ out).
Proof.
  intros e s rm od (Hwf & (M & Mnx & Mlast) & (U & b & A & Hch & HA & HU & Hcnt) & Hacct) Hab Hrel.
  destruct Hwf as (Hcw & Hhd & Hids & Hseen & Hnds).
  pose proof (M (next s)) as Mn.
  destruct (find_ver (e_chain e) (next s)) as [c|] eqn:Hfind; injection Mn as R1 R2 R3 R4 R5; [|congruence].
  rewrite Hrel, N.leb_refl in R3. destruct (v_rel c) eqn:Hrc; [|discriminate]. injection R3 as ->.
  destruct (find_ver_In _ _ _ Hfind) as [Hcin Hcid].
  assert (Hhas : has_delta c = true) by (apply (chain_wf_elem _ c Hcw Hcin); auto).
  unfold has_delta in Hhas. destruct (v_delta c) as [d|] eqn:Hd; [|discriminate].
  destruct (locate _ U b A c (next s) Hcw Hhd Hch HA HU Hcin Hcid) as [->|Hn]; [|congruence].
  destruct (base_advance (e_chain e) (e_seen e) U b A d (next s) (fileRef s) rm
              (holds (e_chain e) (next s)) Hcw Hhd Hseen Hch HA HU Hd Hcid Hcnt Hacct)
    as (U' & n & HUeq & fr' & out & Happ & Hc' & Hacct' & HA' & HU').
  exists fr', out. split; [exact Happ|].
  assert (Hch' : e_chain e = U' ++ n :: b :: A) by (rewrite Hch, HUeq, <- app_assoc; reflexivity).
  split; [repeat split; auto|]. split; [|split].
  - split; [|split; [unfold pop_released; sproj; specialize (Hids b Hcin); lia|exact Mlast]].
    apply (maps_update (next s)) with (1 := M).
    + intros v Hne. unfold entry_at, pop_released; sproj. rewrite mget_mdel_neq by auto. reflexivity.
    + intros v. apply entry_of_step.
    + unfold entry_at, pop_released; sproj. rewrite R1, R2, R4, R5, mget_mdel_eq, Hfind. cbn [entry_of].
      rewrite Hrc, leb_passed. reflexivity.
  - exists U', n, (b :: A). unfold pop_released; sproj.
    split; [exact Hch'|]. split; [exact HA'|]. split; [exact HU'|].
    intros f. rewrite Hc'. pose proof (holds_step_at _ b f Hcw Hcin) as Hh. rewrite Hcid, Hrc in Hh. cbn in Hh. lia.
  - unfold pop_released; sproj. exact Hacct'.
Qed.

Lemma step_convert : forall e s rm files,
  Inv e s rm -> smem (abandoned s) (next s) = false -> mhas (released s) (next s) = false ->
  mget (ref s) (next s) = Some files ->
  exists fr2 out,
    (match mget (deltas s) (next s) with
     | Some d => applyDelta (add_all (fileRef s) files) d
     | None => Ok (add_all (fileRef s) files, [])
     end) = Ok (fr2, out)
    /\ Inv e (converted s fr2) (rm ++ out).
Proof.
  intros e s rm files (Hwf & (M & Mnx & Mlast) & (U & b & A & Hch & HA & HU & Hcnt) & Hacct) Hab Hnrel Href.
  destruct Hwf as (Hcw & Hhd & Hids & Hseen & Hnds).
  pose proof (M (next s)) as Mn.
  destruct (find_ver (e_chain e) (next s)) as [c|] eqn:Hfind; injection Mn as R1 R2 R3 R4 R5; [|congruence].
  rewrite Href, N.leb_refl in R1. rewrite N.leb_refl in R2. destruct (v_rel c) eqn:Hrc; [discriminate|].
  injection R1 as ->. cbn in R2. rewrite R2.
  destruct (find_ver_In _ _ _ Hfind) as [Hcin Hcid].
  destruct (chain_wf_elem _ c Hcw Hcin) as (NDf & Hlate & _).
  assert (Hc_un : applied (next s) c = false).
  { unfold applied. apply andb_false_iff. right. apply N.ltb_ge. lia. }
  assert (Hacct1 : acct (add_all (fileRef s) (v_files c)) rm (e_seen e) (Un (e_chain e) (next s))).
  { apply convert_core; auto. intros f Hf. exists c. auto. }
  assert (Hholds : forall f, holds (e_chain e) (next s + 1) f = holds (e_chain e) (next s) f + ind (v_files c) f).
  { intros f. pose proof (holds_step_at _ c f Hcw Hcin) as Hh. rewrite Hcid, Hrc in Hh. exact Hh. }
  assert (Hmaps' : forall fr2, maps_ok e (converted s fr2)).
  { intros fr2. split; [|split; [unfold converted; sproj; specialize (Hids c Hcin); lia|exact Mlast]].
    apply (maps_update (next s)) with (1 := M).
    + intros v Hne. unfold entry_at, converted; sproj. rewrite !mget_mdel_neq, smem_sadd_neq by auto. reflexivity.
    + intros v. apply entry_of_step.
    + unfold entry_at, converted; sproj. rewrite R3, R5, !mget_mdel_eq, smem_sadd_eq, Hfind. cbn [entry_of].
      rewrite Hrc, leb_passed, ltb_passed. reflexivity. }
  destruct (v_delta c) as [d|] eqn:Hd.
  - (* the delta is known: c is the oldest unapplied version and its delta is applied right away *)
    destruct (locate _ U b A c (next s) Hcw Hhd Hch HA HU Hcin Hcid) as [->|Hn]; [|congruence].
    destruct (base_advance (e_chain e) (e_seen e) U b A d (next s) (add_all (fileRef s) (v_files b)) rm
                (fun f => holds (e_chain e) (next s) f + ind (v_files b) f) Hcw Hhd Hseen Hch HA HU Hd Hcid)
      as (U' & n & HUeq & fr' & out & Happ & Hc' & Hacct' & HA' & HU'); auto.
    { intros f. rewrite add_all_cnt by auto. rewrite Hcnt. lia. }
    exists fr', out. split; [exact Happ|].
    split; [repeat split; auto|]. split; [apply Hmaps'|]. split.
    + exists U', n, (b :: A). unfold converted; sproj.
      split; [rewrite Hch, HUeq, <- app_assoc; reflexivity|]. split; [exact HA'|]. split; [exact HU'|].
      intros f. rewrite Hc', Hholds. lia.
    + unfold converted; sproj. exact Hacct'.
  - (* no delta yet: only the references are taken *)
    exists (add_all (fileRef s) (v_files c)), []. split; [reflexivity|]. rewrite app_nil_r.
    assert (Hstill : forall x, In x (e_chain e) -> applied (next s) x = false -> applied (next s + 1) x = false).
    { intros x Hx Hu. destruct (applied (next s + 1) x) eqn:E; auto.
      destruct (applied_only_at (e_chain e) c (next s) x Hcw Hcin Hcid Hx E) as [Ha| ->]; [congruence|].
      unfold applied, has_delta in E. rewrite Hd in E. discriminate. }
    split; [repeat split; auto|]. split; [apply Hmaps'|]. split.
    + exists U, b, A. unfold converted; sproj. split; [exact Hch|]. split; [|split].
      * eapply Forall_impl; [|exact HA]. intros; apply applied_mono; auto.
      * rewrite Forall_forall in *. intros x Hx. apply Hstill; auto.
        rewrite Hch. apply in_app_or in Hx. apply in_or_app. destruct Hx as [Hx|[<-|[]]]; auto. right; left; auto.
      * intros f. rewrite add_all_cnt by auto. rewrite Hcnt, Hholds. lia.
    + unfold converted; sproj. eapply acct_iff; [|exact Hacct1].
      intros f. split; intros (x & Hx & Ha & Hf); exists x; repeat split; auto.
      destruct (applied (next s) x) eqn:E; auto. rewrite (applied_mono _ _ E) in Ha. discriminate.
Qed.

Lemma loop1_inv : forall fuel p exp e s rm,
  Inv e s rm -> (length (abandoned s) + length (ref s) < fuel)%nat ->
  exists s' out, loop1 fuel p exp s = Ok (s', out) /\ Inv e s' (rm ++ out).
Proof.
  induction fuel as [|fuel IH]; intros p exp e s rm HI Hm; [lia|].
  cbn [loop1].
  destruct (smem (abandoned s) (next s)) eqn:Hab.
  - destruct (IH p exp e (skip_abandoned s) rm (step_skip e s rm HI Hab)) as (s' & out & Hl & HI').
    { unfold skip_abandoned; sproj. pose proof (sdel_length_lt _ _ Hab). lia. }
    exists s', out. auto.
  - destruct (mhas (released s) (next s)) eqn:Hrel.
    { exists s, []. rewrite app_nil_r. auto. }
    destruct (mget (ref s) (next s)) as [files|] eqn:Href.
    2:{ exists s, []. rewrite app_nil_r. auto. }
    destruct ((last s - next s <? maxCachedNumber p) && negb (smem exp (next s))).
    { exists s, []. rewrite app_nil_r. auto. }
    destruct (step_convert e s rm files HI Hab Hrel Href) as (fr2 & out & Hc & HI2).
    rewrite Hc.
    destruct (IH p exp e (converted s fr2) (rm ++ out) HI2) as (s' & out' & Hl & HI').
    { unfold converted; sproj. pose proof (mdel_length_lt _ _ _ Href). lia. }
    rewrite Hl. exists s', (out ++ out'). split; auto. rewrite app_assoc. auto.
Qed.

Lemma loop2_inv : forall fuel e s rm,
  Inv e s rm -> (length (abandoned s) + length (released s) < fuel)%nat ->
  exists s' out, loop2 fuel s = Ok (s', out) /\ Inv e s' (rm ++ out)
    /\ smem (abandoned s') (next s') = false /\ mget (released s') (next s') = None.
Proof.
  induction fuel as [|fuel IH]; intros e s rm HI Hm; [lia|].
  cbn [loop2].
  destruct (smem (abandoned s) (next s)) eqn:Hab.
  - destruct (IH e (skip_abandoned s) rm (step_skip e s rm HI Hab)) as (s' & out & Hl & HI').
    { unfold skip_abandoned; sproj. pose proof (sdel_length_lt _ _ Hab). lia. }
    exists s', out. auto.
  - destruct (mget (released s) (next s)) as [od|] eqn:Hrel.
    2:{ exists s, []. rewrite app_nil_r. auto. }
    destruct (step_pop e s rm od HI Hab Hrel) as (fr2 & out & Hc & HI2).
    rewrite Hc.
    destruct (IH e (pop_released s fr2) (rm ++ out) HI2) as (s' & out' & Hl & HI' & Hx).
    { unfold pop_released; sproj. pose proof (mdel_length_lt _ _ _ Hrel). lia. }
    rewrite Hl. exists s', (out ++ out'). split; auto. rewrite app_assoc. auto.
Qed.

(* after a complete processTasks run the loop waits at an id that is neither abandoned nor released *)
Definition waiting (s : state) : Prop :=
  smem (abandoned s) (next s) = false /\ mget (released s) (next s) = None.

Lemma processTasks_inv : forall p exp e s rm,
  Inv e s rm ->
  exists s' out, processTasks p exp s = Ok (s', out) /\ Inv e s' (rm ++ out) /\ waiting s'.
Proof.
  intros p exp e s rm HI. unfold processTasks.
  destruct (loop1_inv (fuel1 s) p exp e s rm HI) as (s1 & out1 & Hl1 & HI1); [unfold fuel1; lia|].
  rewrite Hl1.
  destruct (loop2_inv (fuel2 s1) e s1 (rm ++ out1) HI1) as (s2 & out2 & Hl2 & HI2 & Hw); [unfold fuel2; lia|].
  rewrite Hl2. exists s2, (out1 ++ out2). split; auto. rewrite app_assoc. auto.
Qed.

(* a table of an applied version c that the oldest unapplied version b does not count is in no
   unapplied version *)
Lemma rel_gone : forall ch U b A c f, chain_wf ch -> ch = U ++ b :: A ->
  (forall x, In x A -> has_delta x = true) -> In c A ->
  In f (v_files c) -> ind (counted b) f = 0 ->
  forall x, In x (U ++ [b]) -> ~ In f (v_files x).
Proof.
  intros ch U b A c f Hwf Hch HdA Hc Hfc Hind.
  apply in_split in Hc. destruct Hc as (A1 & A2 & ->).
  assert (Hnb : ~ In f (v_files b)).
  { intros Hfb.
    assert (Hlate : In f (v_late b)).
    { destruct (in_dec N.eq_dec f (v_late b)) as [?|Hn]; auto. exfalso.
      rewrite ind_In in Hind; [lia|]. apply ldiff_In. auto. }
    destruct A1 as [|p A1'].
    - cbn in Hch. rewrite Hch in Hwf. destruct (chain_wf_adj U b c A2 Hwf) as [Htr _].
      assert (Hd : has_delta c = true) by (apply HdA; left; auto).
      unfold has_delta in Hd. destruct (v_delta c) as [d|]; [|discriminate].
      destruct Htr as (_ & _ & _ & _ & _ & Hl & _). apply (Hl f Hlate Hfc).
    - cbn in Hch. rewrite Hch in Hwf. destruct (chain_wf_adj U b p (A1' ++ c :: A2) Hwf) as [Htr _].
      assert (Hd : has_delta p = true) by (apply HdA; left; auto).
      unfold has_delta in Hd. destruct (v_delta p) as [d|]; [|discriminate].
      destruct Htr as (_ & _ & _ & _ & _ & Hl & _).
      assert (Hwf2 : chain_wf ((U ++ [b]) ++ p :: A1' ++ c :: A2)) by (rewrite <- app_assoc; cbn; exact Hwf).
      apply (gone A1' (U ++ [b]) p c A2 f Hwf2 Hfc (Hl f Hlate) b); auto.
      apply in_or_app. right; left; auto. }
  intros x Hx. apply in_app_or in Hx. destruct Hx as [Hx|[<-|[]]]; auto.
  rewrite Hch in Hwf. apply (gone A1 U b c A2 f Hwf Hfc Hnb x Hx).
Qed.

Lemma applied_has_delta : forall nx c, applied nx c = true -> has_delta c = true.
Proof. intros nx c H. unfold applied in H. apply andb_true_iff in H. tauto. Qed.

Lemma handle_rel : forall e e' s rm v F,
  Inv e s rm -> env_step e (ERel v F) = Some e' ->
  exists s1 out, handle s (ERel v F) = Ok (s1, out) /\ Inv e' s1 (rm ++ out).
Proof.
  intros e e' s rm v F (Hwf & (M & Mnx & Mlast) & (U & b & A & Hch & HA & HU & Hcnt) & Hacct) Hstep.
  pose proof (env_step_wf _ _ _ Hwf Hstep) as Hwf'.
  destruct Hwf as (Hcw & Hhd & Hids & Hseen & Hnds).
  cbn in Hstep. destruct (rel_in (e_chain e) v F) as [ch'|] eqn:Hri; [|discriminate].
  injection Hstep as <-.
  destruct (rel_in_map _ _ _ _ Hcw Hri) as (-> & c & Hfind & Hrc & Hdc & ->).
  destruct (find_ver_In _ _ _ Hfind) as [Hcin Hcid].
  pose proof (M v) as Mv. rewrite Hfind in Mv. injection Mv as R1 R2 R3 R4 R5.
  rewrite Hrc in R1, R2, R3, R4. cbn [negb andb] in R1, R2, R3, R4.
  (* the tables and what they should hold change under v only *)
  assert (Hmaps : forall s1, (forall v', v' <> v -> entry_at s1 v' = entry_at s v') ->
            entry_at s1 v = entry_of (e_nid e) (next s) v (Some (set_rel c)) ->
            next s1 = next s -> last s1 = last s ->
            maps_ok {| e_nid := e_nid e; e_chain := map (relmap v) (e_chain e); e_seen := e_seen e |} s1).
  { intros s1 Hs Hv Hn Hl. unfold maps_ok; cbn [e_chain e_nid]. rewrite Hn, Hl. split; [|split; [exact Mnx|]].
    - apply (maps_update v) with (1 := M); [exact Hs| |].
      + intros v' Hne. rewrite find_ver_relmap. destruct (find_ver (e_chain e) v') as [x|] eqn:E; auto.
        apply find_ver_In in E. destruct E as [_ E]. rewrite relmap_neq; auto. congruence.
      + rewrite find_ver_relmap, Hfind. unfold relmap. rewrite Hcid, N.eqb_refl. exact Hv.
    - rewrite Mlast. destruct (e_chain e); cbn; auto. rewrite relmap_id. reflexivity. }
  assert (Hshape : forall fr, (forall f, cnt fr f = ind (counted b) f + holds (map (relmap v) (e_chain e)) (next s) f) ->
            exists U' b' A', map (relmap v) (e_chain e) = U' ++ b' :: A' /\
              Forall (fun c => applied (next s) c = true) A' /\ Forall (fun c => applied (next s) c = false) (U' ++ [b']) /\
              forall f, cnt fr f = ind (counted b') f + holds (map (relmap v) (e_chain e)) (next s) f).
  { intros fr Hfr. exists (map (relmap v) U), (relmap v b), (map (relmap v) A).
    split; [rewrite Hch, map_app; reflexivity|]. rewrite relmap_counted. split; [|split; [|exact Hfr]].
    - rewrite Forall_map. eapply Forall_impl; [|exact HA]. intros x. rewrite relmap_applied. auto.
    - change [relmap v b] with (map (relmap v) [b]). rewrite <- map_app, Forall_map.
      eapply Forall_impl; [|exact HU]. intros x. rewrite relmap_applied. auto. }
  cbn [handle]. rewrite R4. destruct (v <? next s) eqn:Hlt.
  - (* a converted version: its references are dropped now *)
    apply N.ltb_lt in Hlt.
    assert (Hle : (next s <=? v) = false) by (apply N.leb_gt; exact Hlt). rewrite Hle in R1, R2.
    assert (HcA : In c A).
    { rewrite Forall_forall in HU. rewrite Hch in Hcin. apply in_app_or in Hcin. destruct Hcin as [Hx|[Hx|Hx]]; auto; exfalso;
        assert (Hu : applied (next s) c = false) by (apply HU; subst; apply in_or_app; cbn; auto);
        unfold applied in Hu; rewrite Hdc in Hu; cbn in Hu; apply N.ltb_ge in Hu; lia. }
    destruct (chain_wf_elem _ c Hcw Hcin) as (NDf & _ & _).
    destruct (rel_core (fileRef s) rm (e_seen e) (Un (e_chain e) (next s)) (v_files c)
                (fun f => ind (counted b) f + holds (map (relmap v) (e_chain e)) (next s) f) Hacct NDf)
      as (fr' & out & Hdel & Hc' & Hacct').
    + apply Hseen; auto.
    + intros f. rewrite Hcnt. rewrite (holds_relmap v (e_chain e) c (next s) f Hcw Hfind Hrc).
      replace (v <? next s) with true by (symmetry; apply N.ltb_lt; auto). lia.
    + intros f Hf Hz (x & Hx & Ha & Hfx).
      assert (Hib : ind (counted b) f = 0) by lia.
      assert (HxU : In x (U ++ [b])).
      { rewrite Hch in Hx. apply in_app_or in Hx. apply in_or_app. destruct Hx as [Hx|[<-|Hx]]; auto.
        - right; left; auto.
        - exfalso. rewrite Forall_forall in HA. rewrite (HA x Hx) in Ha. discriminate. }
      apply (rel_gone (e_chain e) U b A c f Hcw Hch) with (x := x); auto.
      intros y Hy. rewrite Forall_forall in HA. apply (applied_has_delta (next s)). auto.
    + rewrite Hdel. eexists; eexists; split; [reflexivity|].
      split; [exact Hwf'|]. split; [|split].
      * apply Hmaps; try reflexivity.
        -- intros v' Hne. unfold entry_at; sproj. rewrite smem_sdel_neq by auto. reflexivity.
        -- unfold entry_at; sproj. rewrite R1, R2, R3, R5, smem_sdel_eq. cbn. rewrite Hle. reflexivity.
      * cbn [e_chain]; sproj. apply Hshape, Hc'.
      * cbn [e_chain e_seen]; sproj. eapply acct_iff; [|exact Hacct']. intros f. symmetry. apply Un_relmap.
  - (* a queued version: it waits in [released] with its delta *)
    apply N.ltb_ge, N.leb_le in Hlt. rewrite Hlt in R1, R2.
    unfold mhas. rewrite R1. eexists; eexists; split; [reflexivity|]. rewrite app_nil_r.
    split; [exact Hwf'|]. split; [|split].
    + apply Hmaps; try reflexivity.
      * intros v' Hne. unfold entry_at; sproj. rewrite !mget_mdel_neq, mget_mset_neq by auto. reflexivity.
      * unfold entry_at; sproj. rewrite !mget_mdel_eq, mget_mset_eq, R2, R4, R5. cbn. rewrite Hlt. reflexivity.
    + cbn [e_chain]; sproj. apply Hshape. intros f.
      rewrite Hcnt, (holds_relmap v (e_chain e) c (next s) f Hcw Hfind Hrc).
      replace (v <? next s) with false by (symmetry; apply N.ltb_ge, N.leb_le; auto). lia.
    + cbn [e_chain e_seen]; sproj. eapply acct_iff; [|exact Hacct]. intros f. symmetry. apply Un_relmap.
Qed.

Lemma handle_abandon : forall e e' s rm a,
  Inv e s rm -> env_step e (EAbandon a) = Some e' ->
  exists s1 out, handle s (EAbandon a) = Ok (s1, out) /\ Inv e' s1 (rm ++ out).
Proof.
  intros e e' s rm a (Hwf & (M & Mnx & Mlast) & Hshape & Hacct) Hstep.
  pose proof (env_step_wf _ _ _ Hwf Hstep) as Hwf'.
  destruct (env_abandon_inv _ _ _ Hstep) as (-> & ->).
  destruct Hwf as (Hcw & Hhd & Hids & Hseen & Hnds).
  cbn [handle]. replace (next s <=? e_nid e) with true by (symmetry; apply N.leb_le; auto).
  eexists; eexists; split; [reflexivity|]. rewrite app_nil_r.
  assert (Hnone : find_ver (e_chain e) (e_nid e) = None).
  { apply find_ver_None. intros c Hc. specialize (Hids c Hc). lia. }
  pose proof (M (e_nid e)) as Mn. rewrite Hnone in Mn. injection Mn as R1 R2 R3 R4 R5.
  split; [exact Hwf'|]. split; [|split].
  - unfold maps_ok; cbn [e_chain e_nid]; sproj. split; [|split; [lia|exact Mlast]].
    apply (maps_update (e_nid e)) with (1 := M).
    + intros v Hne. unfold entry_at; sproj. rewrite smem_sadd_neq by auto. reflexivity.
    + intros v Hne. destruct (find_ver (e_chain e) v); cbn; [reflexivity|]. rewrite ltb_step by exact Hne. reflexivity.
    + unfold entry_at; sproj. rewrite R1, R2, R3, R4, smem_sadd_eq, Hnone. cbn.
      rewrite ltb_passed, andb_true_r, (proj2 (N.leb_le _ _) Mnx). reflexivity.
  - cbn [e_chain]; sproj. exact Hshape.
  - cbn [e_chain e_seen]; sproj. exact Hacct.
Qed.

Lemma handle_tick : forall e s rm,
  Inv e s rm -> exists s1 out, handle s ETick = Ok (s1, out) /\ Inv e s1 (rm ++ out).
Proof. intros. exists s, []. rewrite app_nil_r. split; auto. Qed.

Lemma handle_ref : forall e e' s rm v F,
  Inv e s rm -> env_step e (ERef v F) = Some e' ->
  exists s1 out, handle s (ERef v F) = Ok (s1, out) /\ Inv e' s1 (rm ++ out).
Proof.
  intros e e' s rm v F (Hwf & (M & Mnx & Mlast) & (U & b & A & Hch & HA & HU & Hcnt) & Hacct) Hstep.
  pose proof (env_step_wf _ _ _ Hwf Hstep) as Hwf'.
  destruct (env_ref_inv _ _ _ _ Hstep) as (-> & NDF & _ & Hsh).
  destruct Hwf as (Hcw & Hhd & Hids & Hseen & Hnds).
  destruct (e_chain e) as [|cur rest] eqn:Hce; [destruct U; discriminate|].
  destruct Hsh as (Hfresh & ->).
  set (n := new_ver (e_nid e) F) in *.
  destruct (head_nodelta _ _ Hhd) as [Hcd Hcr].
  assert (Hnone : find_ver (cur :: rest) (e_nid e) = None).
  { apply find_ver_None. intros c Hc. specialize (Hids c Hc). lia. }
  pose proof (M (e_nid e)) as Mn. rewrite Hnone in Mn. injection Mn as R1 R2 R3 R4 R5.
  cbn [handle]. unfold mhas. rewrite R1. eexists; eexists; split; [reflexivity|]. rewrite app_nil_r.
  assert (Hcur_lt : v_id cur < e_nid e) by (apply Hids; left; auto).
  split; [exact Hwf'|]. split; [|split].
  - assert (Hfc : forall v, find_ver (n :: cur :: rest) v = if e_nid e =? v then Some n else find_ver (cur :: rest) v) by reflexivity.
    unfold maps_ok; cbn [e_chain e_nid]; sproj. split; [|split; [lia|]].
    + apply (maps_update (e_nid e)) with (1 := M).
      * intros v Hne. unfold entry_at; sproj. rewrite mget_mset_neq by auto. reflexivity.
      * intros v Hne. rewrite Hfc, (proj2 (N.eqb_neq _ _)) by auto.
        destruct (find_ver (cur :: rest) v); cbn; [reflexivity|]. rewrite ltb_step by exact Hne. reflexivity.
      * unfold entry_at; sproj. rewrite mget_mset_eq, R2, R3, R4, R5, N.ltb_irrefl, andb_false_r, Hfc, N.eqb_refl. cbn.
        rewrite (proj2 (N.leb_le _ _) Mnx), (proj2 (N.ltb_ge _ _) Mnx). reflexivity.
    + rewrite Mlast. replace (v_id cur <? e_nid e) with true by (symmetry; apply N.ltb_lt; auto). reflexivity.
  - cbn [e_chain]; sproj. exists (n :: U), b, A.
    split; [rewrite Hch; reflexivity|]. split; [exact HA|]. split.
    + cbn. constructor; auto.
    + intros f. change (holds (n :: cur :: rest) (next s) f) with (hold1 (next s) n f + holds (cur :: rest) (next s) f).
      rewrite Hcnt. unfold hold1. cbn [v_rel v_id n new_ver].
      replace (e_nid e <? next s) with false by (symmetry; apply N.ltb_ge; auto). cbn [negb andb]. lia.
  - cbn [e_chain e_seen]; sproj.
    apply (acct_new_version (fileRef s) rm (e_seen e) (Un (cur :: rest) (next s)) (Un (n :: cur :: rest) (next s)) (v_files cur) F); auto.
    + intros f Hf. apply Un_cons. left. unfold applied, has_delta. rewrite Hcd. auto.
    + intros f. rewrite (Un_cons n). cbn. tauto.
Qed.

Lemma two_youngest : forall n c rest U b A nx,
  n :: c :: rest = U ++ b :: A -> Forall (fun x => applied nx x = true) A -> applied nx c = false ->
  (U = [n] /\ b = c /\ A = rest) \/ exists U2, U = n :: c :: U2 /\ rest = U2 ++ b :: A.
Proof.
  intros n c rest U b A nx Hch HA Hc. destruct U as [|u1 [|u2 U2]]; cbn in Hch.
  - exfalso. injection Hch as _ <-. inversion HA; congruence.
  - injection Hch as <- <- <-. auto.
  - injection Hch as <- <- ->. right. eauto.
Qed.

Lemma handle_delta : forall e e' s rm o a d,
  Inv e s rm -> env_step e (EDelta o a d) = Some e' ->
  exists s1 out, handle s (EDelta o a d) = Ok (s1, out) /\ Inv e' s1 (rm ++ out).
Proof.
  intros e e' s rm o a d (Hwf & (M & Mnx & Mlast) & (U & b & A & Hch & HA & HU & Hcnt) & Hacct) Hstep.
  pose proof (env_step_wf _ _ _ Hwf Hstep) as Hwf'.
  destruct (env_delta_inv _ _ _ _ _ Hstep) as (n & c & rest & Hce & <- & C2 & _ & ->).
  destruct Hwf as (Hcw & Hhd & Hids & Hseen & Hnds). rewrite Hce in *.
  set (dl := {| d_added := a; d_deleted := d |}) in *.
  set (n' := set_late n _) in *. set (c' := set_delta c dl) in *.
  assert (Hcd : v_delta c = None) by (unfold has_delta in C2; destruct (v_delta c); [discriminate|auto]).
  cbn in Hhd. destruct Hhd as (Hnd & Hnr & Hrestd).
  destruct (chain_wf_elem _ c Hcw (or_intror (or_introl eq_refl))) as (_ & _ & HRc).
  pose proof (chain_wf_head_lt n (c :: rest) Hcw c (or_introl eq_refl)) as Hlt.
  assert (Hcr : v_rel c = false).
  { destruct (v_rel c) eqn:E; auto. rewrite (HRc eq_refl) in C2. discriminate. }
  destruct (chain_wf_adj [] n' c' rest (proj1 Hwf')) as [Htr _]. cbn in Htr.
  assert (Hf_old : forall v', find_ver (n :: c :: rest) v' =
            if v_id n =? v' then Some n else if v_id c =? v' then Some c else find_ver rest v') by reflexivity.
  assert (Hf_new : forall v', find_ver (n' :: c' :: rest) v' =
            if v_id n =? v' then Some n' else if v_id c =? v' then Some c' else find_ver rest v') by reflexivity.
  assert (Hnc : (v_id n =? v_id c) = false) by (apply N.eqb_neq; lia).
  (* the tables and what they should hold change under the id of c only *)
  assert (Hmaps : forall s1, (forall v', v' <> v_id c -> entry_at s1 v' = entry_at s v') ->
            entry_at s1 (v_id c) = entry_of (e_nid e) (next s) (v_id c) (Some c') ->
            next s1 = next s -> last s1 = last s ->
            maps_ok {| e_nid := e_nid e; e_chain := n' :: c' :: rest; e_seen := e_seen e |} s1).
  { intros s1 Hs Hv Hn Hl. unfold maps_ok; cbn [e_chain e_nid]. rewrite Hn, Hl. split; [|split; [exact Mnx|exact Mlast]].
    apply (maps_update (v_id c)) with (1 := M); [exact Hs| |].
    - intros v' Hne. rewrite Hf_new, Hf_old. destruct (v_id n =? v'); [reflexivity|].
      rewrite (proj2 (N.eqb_neq _ _)) by auto. reflexivity.
    - rewrite Hf_new, Hnc, N.eqb_refl. exact Hv. }
  pose proof (M (v_id c)) as Mo. rewrite Hf_old, Hnc, N.eqb_refl in Mo. injection Mo as R1 R2 R3 R4 R5.
  rewrite Hcr in R1, R2, R3, R4. cbn [negb andb] in R1, R2, R3, R4.
  (* holds and Un do not see the change *)
  assert (Hholds : forall nx f, holds (n' :: c' :: rest) nx f = holds (n :: c :: rest) nx f) by reflexivity.
  assert (Hn_un : forall nx, applied nx n = false).
  { intros nx. unfold applied, has_delta. rewrite Hnd. reflexivity. }
  assert (Hc_un : applied (next s) c = false).
  { unfold applied, has_delta. rewrite Hcd. reflexivity. }
  cbn [handle]. unfold mhas. rewrite R1. destruct (next s <=? v_id c) eqn:Hle.
  - (* the version is still queued: the delta is stored *)
    eexists; eexists; split; [reflexivity|]. rewrite app_nil_r.
    assert (Hc_un' : applied (next s) c' = false).
    { unfold applied. apply andb_false_iff; right. apply N.ltb_ge, N.leb_le. exact Hle. }
    split; [exact Hwf'|]. split; [|split].
    + apply Hmaps; try reflexivity.
      * intros v' Hne. unfold entry_at; sproj. rewrite mget_mset_neq by auto. reflexivity.
      * unfold entry_at; sproj. rewrite R1, R3, R4, R5, mget_mset_eq. cbn [entry_of c' set_delta v_rel v_files v_delta].
        rewrite Hcr, Hle. reflexivity.
    + cbn [e_chain]; sproj.
      destruct (two_youngest n c rest U b A (next s) Hch HA Hc_un) as [(-> & -> & ->)|(U2 & -> & ->)].
      * exists [n'], c', rest. split; [reflexivity|]. split; [exact HA|]. split.
        -- constructor; [apply Hn_un|]. constructor; [exact Hc_un'|constructor].
        -- intros f. rewrite Hholds. apply Hcnt.
      * exists (n' :: c' :: U2), b, A. split; [reflexivity|]. split; [exact HA|]. split.
        -- cbn. constructor; [apply Hn_un|]. constructor; [exact Hc_un'|].
           cbn in HU. inversion HU as [|? ? _ HU2]. inversion HU2; auto.
        -- intros f. rewrite Hholds. apply Hcnt.
    + cbn [e_chain e_seen]; sproj. eapply acct_iff; [|exact Hacct].
      intros f. rewrite !Un_cons, Hc_un, Hc_un'. reflexivity.
  - (* the version was converted before its delta was known: the delta is applied now *)
    apply N.leb_gt in Hle. rewrite R4, (proj2 (N.ltb_lt _ _) Hle).
    (* c is the oldest unapplied version *)
    assert (Hrest_ap : forall x, In x rest -> applied (next s) x = true).
    { intros x Hx. unfold applied. apply andb_true_iff. split.
      - rewrite Forall_forall in Hrestd. auto.
      - apply N.ltb_lt. pose proof (chain_wf_head_lt c rest (chain_wf_tail _ _ Hcw) x Hx). lia. }
    assert (Hrest_un : forall f, ~ Un rest (next s) f).
    { intros f (x & Hx & Ha & _). rewrite (Hrest_ap x Hx) in Ha. discriminate. }
    destruct (two_youngest n c rest U b A (next s) Hch HA Hc_un) as [(-> & -> & ->)|(U2 & -> & ->)].
    2:{ exfalso. rewrite Forall_forall in HU.
        assert (Hb : applied (next s) b = false) by (apply HU, in_or_app; right; left; auto).
        rewrite (Hrest_ap b (in_elt b U2 A)) in Hb. discriminate. }
    assert (Hc_ap' : applied (next s) c' = true).
    { unfold applied, c', set_delta, has_delta; cbn. apply N.ltb_lt. lia. }
    destruct (delta_core (fileRef s) rm (e_seen e) (Un (n :: c :: rest) (next s)) (Un (n' :: c' :: rest) (next s))
                (holds (n :: c :: rest) (next s)) c' dl n' Hacct Htr) as (fr' & out & Happ & Hc' & Hacct').
    + exact Hcnt.
    + intros f Hf. rewrite !Un_cons. right; left. split; [exact Hc_un|exact Hf].
    + intros f Hf. rewrite Un_cons. left. split; [apply Hn_un|exact Hf].
    + intros f. rewrite !Un_cons, Hc_ap'. intros [H|[[H _]|H]]; [left; exact H|discriminate|right; right; exact H].
    + intros f. rewrite !Un_cons, Hc_ap'. intros [H|[[_ H]|H]]; [left; left; exact H|right; exact H|destruct (Hrest_un f H)].
    + intros f Hfc Hfn. rewrite !Un_cons, Hc_ap'. intros [[_ H]|[[H _]|H]]; [exact (Hfn H)|discriminate|exact (Hrest_un f H)].
    + apply (Hseen c). right; left; auto.
    + fold dl. rewrite Happ. eexists; eexists; split; [reflexivity|].
      split; [exact Hwf'|]. split; [|split].
      * apply Hmaps; try reflexivity. unfold entry_at, set_fileRef; sproj. rewrite R1, R2, R3, R4, R5.
        cbn [entry_of c' set_delta v_rel v_files v_delta]. rewrite Hcr, (proj2 (N.leb_gt _ _) Hle). reflexivity.
      * cbn [e_chain]; sproj. exists [], n', (c' :: rest).
        split; [reflexivity|]. split; [constructor; auto; rewrite Forall_forall; exact Hrest_ap|]. split.
        -- constructor; [apply Hn_un|constructor].
        -- intros f. rewrite Hc', Hholds. reflexivity.
      * cbn [e_chain e_seen]; sproj. exact Hacct'.
Qed.

Lemma first_ref_inv : forall e' v F,
  env_step env_init (ERef v F) = Some e' ->
  exists s1, handle init (ERef v F) = Ok (s1, []) /\ Inv e' s1 [].
Proof.
  intros e' v F Hstep.
  pose proof (env_step_wf _ _ _ env_init_wf Hstep) as Hwf'.
  destruct (env_ref_inv _ _ _ _ Hstep) as (-> & _ & _ & -> & ->). cbn [e_nid env_init] in *.
  eexists. split; [reflexivity|].
  split; [exact Hwf'|]. split; [|split].
  - unfold maps_ok; cbn [e_chain e_nid]; sproj. split; [|split; [cbn; lia|reflexivity]].
    intros v. destruct v as [|[pv|pv|]]; reflexivity.
  - exists [], (new_ver 0 []), []. cbn [e_chain]; sproj. split; [reflexivity|]. split; [constructor|]. split.
    + constructor; [reflexivity|constructor].
    + intros f. reflexivity.
  - cbn [e_chain e_seen]; sproj. constructor; [intros f []|intros f []|constructor].
Qed.

Lemma handle_inv : forall e e' s rm ev,
  Inv e s rm -> env_step e ev = Some e' ->
  exists s1 out, handle s ev = Ok (s1, out) /\ Inv e' s1 (rm ++ out).
Proof.
  intros e e' s rm ev HI Hstep. destruct ev.
  - eapply handle_ref; eauto.
  - eapply handle_rel; eauto.
  - eapply handle_delta; eauto.
  - eapply handle_abandon; eauto.
  - cbn in Hstep. inversion Hstep; subst. apply handle_tick; auto.
Qed.

Lemma step_inv : forall p e e' s rm i,
  Inv e s rm -> env_step e (fst i) = Some e' ->
  exists s' out, step p s i = Ok (s', out) /\ Inv e' s' (rm ++ out) /\ waiting s'.
Proof.
  intros p e e' s rm i HI Hstep. unfold step.
  destruct (handle_inv e e' s rm (fst i) HI Hstep) as (s1 & out1 & Hh & HI1). rewrite Hh.
  destruct (processTasks_inv p (snd i) e' s1 (rm ++ out1) HI1) as (s2 & out2 & Hp & HI2 & Hw). rewrite Hp.
  exists s2, (out1 ++ out2). rewrite app_assoc. auto.
Qed.

(* the invariant of whole runs: nothing happened yet, or Inv and the loop is waiting *)
Definition G (e : envst) (s : state) (rm : list N) : Prop :=
  Inv0 e s rm \/ (Inv e s rm /\ waiting s).

Lemma step_G : forall p e e' s rm i,
  G e s rm -> env_step e (fst i) = Some e' ->
  exists s' out, step p s i = Ok (s', out) /\ G e' s' (rm ++ out).
Proof.
  intros p e e' s rm i [(-> & -> & ->)|[HI _]] Hstep.
  - destruct i as [ev exp]. cbn [fst] in Hstep. destruct ev as [v F|v F|v a d|v|]; try (cbn in Hstep; discriminate).
    + destruct (first_ref_inv e' v F Hstep) as (s1 & Hh & HI1).
      unfold step. cbn [fst snd]. rewrite Hh.
      destruct (processTasks_inv p exp e' s1 [] HI1) as (s2 & out2 & Hp & HI2 & Hw). rewrite Hp.
      exists s2, ([] ++ out2). split; auto. right. auto.
    + cbn in Hstep. rewrite andb_false_r in Hstep. discriminate.
    + cbn in Hstep. inversion Hstep; subst. exists init, []. split; [reflexivity|]. left. repeat split; auto.
  - destruct (step_inv p e e' s rm i HI Hstep) as (s' & out & Hs & HI' & Hw).
    exists s', out. split; auto. right; auto.
Qed.

Lemma run_from_G : forall p ins e e' s rm,
  G e s rm -> env_run_from e ins = Some e' ->
  exists s' out, run_from p s ins = Ok (s', out) /\ G e' s' (rm ++ out).
Proof.
  induction ins as [|i ins IH]; intros e e' s rm HG Hrun; cbn in *.
  - inversion Hrun; subst. exists s, []. rewrite app_nil_r. auto.
  - destruct (env_step e (fst i)) as [e1|] eqn:Hst; [|discriminate].
    destruct (step_G p e e1 s rm i HG Hst) as (s1 & out1 & Hs & HG1). rewrite Hs.
    destruct (IH e1 e' s1 (rm ++ out1) HG1 Hrun) as (s2 & out2 & Hr & HG2). rewrite Hr.
    exists s2, (out1 ++ out2). rewrite app_assoc. auto.
Qed.

Lemma run_G : forall p ins e,
  env_run ins = Some e -> exists s rm, run p ins = Ok (s, rm) /\ G e s rm.
Proof.
  intros p ins e H. unfold run.
  destruct (run_from_G p ins env_init e init [] (or_introl (conj eq_refl (conj eq_refl eq_refl))) H) as (s & out & Hr & HG).
  exists s, out. auto.
Qed.

Lemma run_from_app : forall p a b s,
  run_from p s (a ++ b) =
  match run_from p s a with
  | Ok (s1, rm1) =>
      match run_from p s1 b with
      | Ok (s2, rm2) => Ok (s2, rm1 ++ rm2)
      | Panic q => Panic q
      | OutOfFuel => OutOfFuel
      end
  | Panic q => Panic q
  | OutOfFuel => OutOfFuel
  end.
Proof.
  induction a as [|i a IH]; intros b s; cbn [app run_from].
  - destruct (run_from p s b) as [[s2 rm2]| |]; reflexivity.
  - destruct (step p s i) as [[s' rm']| |]; auto. rewrite IH.
    destruct (run_from p s' a) as [[s1 rm1]| |]; auto.
    destruct (run_from p s1 b) as [[s2 rm2]| |]; auto. rewrite app_assoc. reflexivity.
Qed.

Lemma env_run_from_app : forall a b e,
  env_run_from e (a ++ b) = match env_run_from e a with Some e1 => env_run_from e1 b | None => None end.
Proof.
  induction a as [|i a IH]; intros b e; cbn; auto. destruct (env_step e (fst i)); auto.
Qed.

Lemma env_ok_prefix : forall pre suf, env_ok (pre ++ suf) = true -> env_ok pre = true.
Proof.
  intros pre suf H. unfold env_ok, env_run in *. rewrite env_run_from_app in H.
  destruct (env_run_from env_init pre); auto.
Qed.

Lemma holds_ge : forall ch c nx f,
  In c ch -> v_rel c = false -> v_id c < nx -> In f (v_files c) -> 1 <= holds ch nx f.
Proof.
  induction ch as [|x ch IH]; intros c nx f Hin Hr Hlt Hf; [contradiction|].
  cbn [holds]. destruct Hin as [<-|Hin].
  - unfold hold1. rewrite Hr. replace (v_id x <? nx) with true by (symmetry; apply N.ltb_lt; auto).
    cbn. rewrite (ind_In _ _ Hf). lia.
  - specialize (IH c nx f Hin Hr Hlt Hf). lia.
Qed.

Theorem refloop_safe : forall p ins, env_ok ins = true ->
  forall pre suf, ins = pre ++ suf ->
  exists e s rm, env_run pre = Some e /\ run p pre = Ok (s, rm) /\
    forall c f, In c (live e) -> In f (v_files c) -> ~ In f rm.
Proof.
  intros p ins Hok pre suf ->. apply env_ok_prefix in Hok. unfold env_ok in Hok.
  destruct (env_run pre) as [e|] eqn:He; [|discriminate].
  destruct (run_G p pre e He) as (s & rm & Hr & HG).
  exists e, s, rm. split; [reflexivity|]. split; [exact Hr|].
  intros c f Hc Hf Hrm. unfold live in Hc. apply filter_In in Hc. destruct Hc as [Hc Hnr].
  apply negb_true_iff in Hnr.
  destruct HG as [(-> & _ & ->)|[(Hwf & Hmaps & (U & b & A & Hch & HA & HU & Hcnt) & Hacct) _]]; [contradiction|].
  destruct (ac_rm _ _ _ _ Hacct f Hrm) as (Hz & _ & Hun).
  destruct (applied (next s) c) eqn:Ha.
  - unfold applied in Ha. apply andb_true_iff in Ha. destruct Ha as [_ Ha]. apply N.ltb_lt in Ha.
    pose proof (holds_ge (e_chain e) c (next s) f Hc Hnr Ha Hf). rewrite Hcnt in Hz. lia.
  - apply Hun. exists c. auto.
Qed.

Theorem refloop_no_negative : forall p ins, env_ok ins = true ->
  forall pre suf, ins = pre ++ suf -> exists s rm, run p pre = Ok (s, rm).
Proof.
  intros p ins Hok pre suf E. destruct (refloop_safe p ins Hok pre suf E) as (e & s & rm & _ & Hr & _). eauto.
Qed.

Lemma mget_all_none : forall {V} (m : list (N * V)), (forall k, mget m k = None) -> m = [].
Proof.
  intros V m H. destruct m as [|[k v] m]; auto. specialize (H k). cbn in H. rewrite N.eqb_refl in H. discriminate.
Qed.

Theorem refloop_complete : forall p ins e, env_run ins = Some e -> quiescent e = true ->
  exists s rm, run p ins = Ok (s, rm) /\
    NoDup rm /\
    (forall f, In f rm <-> In f (e_seen e) /\ ~ In f (cur_files e)) /\
    Permutation rm (ldiff (e_seen e) (cur_files e)) /\
    released s = [] /\ deltas s = [] /\
    (forall f, 1 <= cnt (fileRef s) f -> In f (cur_files e)).
Proof.
  intros p ins e He Hq.
  destruct (run_G p ins e He) as (s & rm & Hr & HG). exists s, rm. split; [exact Hr|].
  destruct HG as [(-> & -> & ->)|[(Hwf & Hmaps & (U & b & A & Hch & HA & HU & Hcnt) & Hacct) [Hw1 Hw2]]].
  { cbn. split; [constructor|]. split; [intros f; cbn; tauto|]. split; [constructor|].
    split; [reflexivity|]. split; [reflexivity|]. intros f H. unfold cnt in H. cbn in H. lia. }
  destruct Hmaps as (M & Mnx & Mlast).
  destruct Hwf as (Hcw & Hhd & Hids & Hseen & Hnds).
  unfold quiescent in Hq. apply andb_true_iff in Hq. destruct Hq as [Hset Hallrel].
  destruct (e_chain e) as [|cur older] eqn:Hce; [destruct U; discriminate|].
  rewrite forallb_forall in Hallrel.
  destruct (head_nodelta _ _ Hhd) as [Hcd Hcr].
  (* every older version is applied *)
  assert (Hold : forall x, In x older -> applied (next s) x = true).
  { intros x Hx. unfold applied.
    assert (Hxr : v_rel x = true) by (apply Hallrel; auto).
    assert (Hxd : has_delta x = true) by (apply (chain_wf_elem _ x Hcw); auto; right; auto).
    rewrite Hxd. cbn. apply N.ltb_lt.
    assert (Hxc : v_id x < v_id cur) by (apply (chain_wf_head_lt cur older Hcw x Hx)).
    pose proof (M (next s)) as Mn.
    destruct (find_ver (cur :: older) (next s)) as [y|] eqn:Hf; injection Mn as R1 R2 R3 R4 R5.
    - rewrite R3, N.leb_refl in Hw2. destruct (v_rel y) eqn:Hyr; [discriminate|].
      destruct (find_ver_In _ _ _ Hf) as [[<-|Hy] Hyid]; [lia|].
      rewrite (Hallrel y Hy) in Hyr. discriminate.
    - rewrite R5, N.leb_refl in Hw1. cbn in Hw1. apply N.ltb_ge in Hw1.
      assert (v_id x < e_nid e) by (apply Hids; right; auto). lia. }
  assert (Hcur_un : applied (next s) cur = false).
  { unfold applied, has_delta. rewrite Hcd. reflexivity. }
  assert (HUn : forall f, Un (cur :: older) (next s) f <-> In f (v_files cur)).
  { intros f. split.
    - intros (x & [<-|Hx] & Ha & Hf); auto. rewrite (Hold x Hx) in Ha. discriminate.
    - intros Hf. exists cur. repeat split; auto. left; auto. }
  (* the oldest unapplied version is the current one *)
  assert (Hb : b = cur).
  { destruct U as [|u U1]; cbn in Hch; injection Hch as E1 E2; auto.
    exfalso. assert (Hbo : In b older) by (rewrite E2; apply in_elt).
    rewrite Forall_forall in HU. assert (applied (next s) b = false) by (apply HU; right; apply in_or_app; right; left; auto).
    rewrite (Hold b Hbo) in H. discriminate. }
  subst b.
  assert (Hholds_old : forall f, holds older (next s) f = 0).
  { intros f. clear - Hallrel. induction older as [|x older IH]; cbn; auto.
    unfold hold1. rewrite (Hallrel x) by (left; auto). cbn. rewrite IH; auto. intros y Hy. apply Hallrel. right; auto. }
  assert (Hcnt_in : forall f, 1 <= cnt (fileRef s) f -> In f (v_files cur)).
  { intros f H. rewrite Hcnt in H. cbn [holds] in H. rewrite Hholds_old in H.
    destruct (ind_cases (counted cur) f) as [[Hi _]|[_ Hi]]; [apply ldiff_In in Hi; tauto|].
    unfold hold1 in H. destruct (negb (v_rel cur) && (v_id cur <? next s)); [|lia].
    destruct (ind_cases (v_files cur) f) as [[Hi2 _]|[_ Hi2]]; auto. lia. }
  assert (Hiff : forall f, In f rm <-> In f (e_seen e) /\ ~ In f (cur_files e)).
  { intros f. unfold cur_files. rewrite Hce. split.
    - intros Hf. destruct (ac_rm _ _ _ _ Hacct f Hf) as (_ & Hs & Hn). split; auto. rewrite <- HUn. auto.
    - intros [Hs Hn]. destruct (ac_seen _ _ _ _ Hacct f Hs) as [?|[Hp|Hu]]; auto.
      + exfalso. apply Hn, Hcnt_in; auto.
      + exfalso. apply Hn, HUn; auto. }
  split; [apply (ac_nodup _ _ _ _ Hacct)|]. split; [exact Hiff|]. split.
  - apply NoDup_Permutation; [apply (ac_nodup _ _ _ _ Hacct)|apply ldiff_NoDup; auto|].
    intros f. rewrite Hiff, ldiff_In. tauto.
  - assert (Hnx : forall x, In x (cur :: older) -> v_rel x = true -> v_id x < next s).
    { intros x [<-|Hx] Hxr; [congruence|]. specialize (Hold x Hx). unfold applied in Hold.
      apply andb_true_iff in Hold. destruct Hold as [_ Hl]. apply N.ltb_lt in Hl. auto. }
    split; [|split].
    + apply mget_all_none. intros v. pose proof (M v) as Mv.
      destruct (find_ver (cur :: older) v) as [x|] eqn:Hf; injection Mv as _ _ -> _ _; auto.
      destruct (v_rel x) eqn:Hxr; auto. destruct (find_ver_In _ _ _ Hf) as [Hx <-].
      replace (next s <=? v_id x) with false by (symmetry; apply N.leb_gt; apply Hnx; auto). reflexivity.
    + apply mget_all_none. intros v. pose proof (M v) as Mv.
      destruct (find_ver (cur :: older) v) as [x|] eqn:Hf; injection Mv as _ -> _ _ _; auto.
      destruct (find_ver_In _ _ _ Hf) as [[<-|Hx] <-].
      * rewrite Hcd. destruct (negb (v_rel cur) && (next s <=? v_id cur)); reflexivity.
      * rewrite (Hallrel x Hx). reflexivity.
    + unfold cur_files. rewrite Hce. exact Hcnt_in.
Qed.
