(* Conc/WriteMergeDataTrace.v — the data acceptor of Corr/C10DataRun.v only ever moves by [xstep]:
   an accepted trace (events + observed data) is the visible part of a run of the data-carrying
   system of Conc/WriteMergeData.v, ending in a state where every call has returned. *)
From Coq Require Import List Bool.
From GL Require Import Conc.WriteMerge Conc.WriteMergeProofs Conc.WriteMergeData Conc.WriteMergeDataProofs
  Gen.InstC10 Corr.C10Run Conc.WriteMergeTrace Corr.C10DataRun.
Import ListNotations.

(* actions without a data effect (and without a side condition on the request table) *)
Definition dirr (a : action) : bool :=
  match a with
  | ACall _ _ _ _ | AFlushOk _ _ | ASelMerge _ _ | AJournalOk _ | AJournalFail _ _ | AApply _ | APublish _ => false
  | _ => true
  end.

Section Sound.
Variable reqs : list wreq.
Notation rqt := (rq reqs).
Notation xs := (xstep wmp v_real rqt).
Notation xr := (xrun wmp v_real rqt).

Definition mkx (s : state) (d : dstate) : xstate := {| xb := s; xd := d |}.

Lemma xrun_trans x l1 x1 l2 x2 : xr x l1 = Some x1 -> xr x1 l2 = Some x2 -> xr x (l1 ++ l2) = Some x2.
Proof. intros H1 H2. rewrite xrun_app, H1. exact H2. Qed.

Lemma irr_step s a s' d : dirr a = true -> step wmp s a = Some s' -> xs (mkx s d) (XA a) = Some (mkx s' d).
Proof.
  intros Hi Hs. unfold xstep. cbn [xb xd mkx].
  assert (Hc : call_ok rqt a = true) by (destruct a; try reflexivity; discriminate). rewrite Hc, Hs.
  destruct a; try discriminate; reflexivity.
Qed.

Lemma irr_run acts : forall s s' d, forallb dirr acts = true -> run wmp s acts = Some s' ->
  xr (mkx s d) (map XA acts) = Some (mkx s' d).
Proof.
  induction acts as [|a acts IH]; intros s s' d Hi Hr.
  - simpl in Hr. inversion Hr; subst. reflexivity.
  - cbn [forallb] in Hi. cbn [run] in Hr. apply andb_true_iff in Hi. destruct Hi as [Ha Hi].
    destruct (step wmp s a) as [s1|] eqn:E; [|discriminate].
    cbn [map xrun]. rewrite (irr_step s a s1 d Ha E). apply IH; auto.
Qed.

Lemma one_step s a s' d : call_ok rqt a = true -> step wmp s a = Some s' ->
  xr (mkx s d) [XA a] = Some (mkx s' (dstep wmp v_real rqt s d a)).
Proof. intros Hc Hs. cbn [xrun]. unfold xstep. cbn [xb xd mkx]. rewrite Hc, Hs. reflexivity. Qed.

Lemma force_acks_irr f : forall l s s', force_acks f l s = Some s' ->
  exists acts, run wmp s acts = Some s' /\ forallb dirr acts = true.
Proof. exact (force_acks_run dirr (fun _ _ => eq_refl) f). Qed.

Lemma run_single s a s' : run wmp s [a] = Some s' -> step wmp s a = Some s'.
Proof. simpl. destruct (step wmp s a); intros H; inversion H; auto. Qed.

Ltac kill_lists :=
  repeat match goal with
  | |- context [match ?x with _ => _ end] => destruct x
  end; try reflexivity.

(* the events whose actions have a data effect; all others are fed to the base acceptor alone (feed_irr) *)
Definition erel (e : event) : bool :=
  match e with
  | ECall _ _ _ _ | EFlushOk _ _ | EMergeRecv _ _ | EJournalOk _ _ | EJournalFail _ _ | EApplied _ | EPublish _ _ => true
  | _ => false
  end.

Lemma feed_irr x e y : erel e = false -> feed x e = Some y ->
  exists acts, run wmp (st x) acts = Some (st y) /\ forallb dirr acts = true.
Proof.
  intros He H. destruct e; try discriminate; unfold feed in H; dm;
  repeat match goal with
  | H : Some _ = Some _ |- _ => inversion H; subst; clear H
  end;
  repeat match goal with
  | H : runa _ _ = Some _ |- _ => apply runa_sound in H; cbn [st mk] in H
  | H : force_acks _ _ _ = Some _ |- _ => apply force_acks_irr in H; destruct H as [? [H ?]]
  end; cbn [st mk] in *;
  try (exists []; split; reflexivity);
  try (eexists; split; [eassumption|]; unfold unlock_prefix, close_prefix; kill_lists; fail);
  try (eexists; split; [eapply run_trans; eassumption|]; rewrite forallb_app; apply andb_true_iff; split; [assumption|];
       unfold unlock_prefix, close_prefix; kill_lists; fail).
Qed.

Lemma dapply_irr s d e : erel e = false -> dapply reqs s d e = d.
Proof. destruct e; try discriminate; reflexivity. Qed.

(* one event of the base vocabulary, with its data effect *)
Lemma dfeed_base_sound x e y d :
  (match e with ECall i _ put _ => Bool.eqb put (req_put (rqt i)) = true | _ => True end) ->
  feed x e = Some y ->
  exists xacts, xr (mkx (st x) d) xacts = Some (mkx (st y) (dapply reqs (st x) d e)).
Proof.
  intros Hcall H. destruct (erel e) eqn:Er.
  2:{ destruct (feed_irr x e y Er H) as (acts & Hr & Hi). rewrite dapply_irr by auto.
      exists (map XA acts). apply irr_run; auto. }
  destruct e; try discriminate; unfold feed in H; cbn [dapply].
  - (* ECall *) apply runa_sound in H. apply run_single in H. exists [XA (ACall i m put sz)].
    rewrite (one_step (st x) (ACall i m put sz) (st y) d Hcall H). reflexivity.
  - (* EFlushOk *) apply runa_sound in H. apply run_single in H. eexists. apply one_step; auto.
  - (* EMergeRecv *) apply runa_sound in H. apply run_single in H. eexists. apply one_step; auto.
  - (* EJournalOk *)
    dm. inversion H; subst; clear H. apply runa_sound in E. cbn [st mk].
    destruct (getw (st x) l) as [wl|]; [destruct (pc wl)|]; cbn [app] in E;
    try (apply run_single in E; eexists; apply one_step; auto; fail).
    cbn [run] in E. destruct (step wmp (st x) (AMergeDone l)) as [s1|] eqn:E1; [|discriminate].
    destruct (step wmp s1 (AJournalOk l)) as [s2|] eqn:E2; [|discriminate]. inversion E; subst.
    exists ([XA (AMergeDone l)] ++ [XA (AJournalOk l)]). eapply xrun_trans.
    + apply (irr_run [AMergeDone l] (st x) s1 d); auto. cbn [run]. rewrite E1. reflexivity.
    + rewrite (one_step s1 (AJournalOk l) (st a) d eq_refl E2). reflexivity.
  - (* EJournalFail *)
    dm. inversion H; subst; clear H. apply runa_sound in E. cbn [st mk].
    destruct (getw (st x) l) as [wl|]; [destruct (pc wl)|]; cbn [app] in E;
    try (apply run_single in E; eexists; apply one_step; auto; fail).
    cbn [run] in E. destruct (step wmp (st x) (AMergeDone l)) as [s1|] eqn:E1; [|discriminate].
    destruct (step wmp s1 (AJournalFail l r)) as [s2|] eqn:E2; [|discriminate]. inversion E; subst.
    exists ([XA (AMergeDone l)] ++ [XA (AJournalFail l r)]). eapply xrun_trans.
    + apply (irr_run [AMergeDone l] (st x) s1 d); auto. cbn [run]. rewrite E1. reflexivity.
    + rewrite (one_step s1 (AJournalFail l r) (st a) d eq_refl E2). reflexivity.
  - (* EApplied *) apply runa_sound in H. apply run_single in H. eexists. apply one_step; auto.
  - (* EPublish *) apply runa_sound in H. apply run_single in H. eexists. apply one_step; auto.
Qed.


Lemma dfeed_sound y e y' : dfeed reqs y e = Some y' ->
  exists xacts, xr (mkx (st (ax y)) (ad y)) xacts = Some (mkx (st (ax y')) (ad y')).
Proof.
  intros H. destruct e as [e|l i k sz sy|l nb cnt bytes q sy|first q n|q]; unfold dfeed in H.
  - destruct (pre_ok reqs y e) eqn:Ep; [|discriminate]. destruct (feed (ax y) e) as [a'|] eqn:Ef; [|discriminate].
    inversion H; subst; clear H. cbn [ax ad mkd]. apply dfeed_base_sound; auto.
    destruct e; auto.
  - dm. inversion H; subst. exists []. reflexivity.
  - dm. inversion H; subst. exists []. reflexivity.
  - inversion H; subst. exists []. reflexivity.
  - set (pre := match tflush (st (ax y)), topen (st (ax y)) with S _, O => [ATxnFlushOk] | _, _ => [] end) in *.
    destruct (runa (ax y) pre) as [a'|] eqn:Er; [|discriminate].
    destruct (xstep wmp v_real rqt {| xb := st a'; xd := ad y |} (XTxnSeq q)) as [x'|] eqn:Ex; [|discriminate].
    inversion H; subst; clear H. cbn [ax ad mkd]. apply runa_sound in Er.
    pose proof (xstep_txn _ _ _ _ _ _ Ex) as (Hb & _). cbn [xb] in Hb.
    exists (map XA pre ++ [XTxnSeq q]). eapply xrun_trans.
    + eapply (irr_run _ _ _ (ad y)); [|exact Er]. unfold pre. destruct (tflush (st (ax y))); [reflexivity|]. destruct (topen (st (ax y))); reflexivity.
    + cbn [xrun]. unfold mkx. rewrite Ex. destruct x' as [xb' xd']. cbn [xb xd] in *. subst xb'. reflexivity.
Qed.

Theorem dfeed_all_sound l : forall y y', dfeed_all reqs y l = Some y' ->
  exists xacts, xr (mkx (st (ax y)) (ad y)) xacts = Some (mkx (st (ax y')) (ad y')).
Proof.
  induction l as [|e l IH]; simpl; intros y y' H.
  - inversion H; subst. exists []. reflexivity.
  - destruct (dfeed reqs y e) as [y1|] eqn:E; [|discriminate].
    destruct (dfeed_sound _ _ _ E) as [a1 H1]. destruct (IH _ _ H) as [a2 H2].
    exists (a1 ++ a2). eapply xrun_trans; eauto.
Qed.

End Sound.

(* an accepted case is a reachable state of the data-carrying system (n writers, the request table of
   the case, db.seq = q0 at the start) in which every call has returned, and whose journal log
   [files_ok]-matches the records read back from the journal files *)
Theorem run_dcase_sound n q0 reqs evs files complete : run_dcase (CDTrace n q0 reqs evs files complete) = true ->
  exists x, xreachable wmp v_real (rq reqs) n q0 x /\ quiescent (xb x) = true /\
            files_ok complete (djl (xd x)) files = true.
Proof.
  unfold run_dcase. destruct (dfeed_all reqs (dinit n q0) evs) as [y|] eqn:E; [|discriminate].
  intros H. apply andb_true_iff in H. destruct H as [H Hf]. apply andb_true_iff in H. destruct H as [H _].
  apply andb_true_iff in H. destruct H as [Hq _].
  destruct (dfeed_all_sound reqs _ _ _ E) as [acts Ha].
  exists (mkx (st (ax y)) (ad y)). repeat split; auto. exists acts. exact Ha.
Qed.
