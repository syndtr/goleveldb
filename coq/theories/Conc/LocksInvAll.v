(* Conc/LocksInvAll.v — the protocol invariant inv2' holds in every reachable state (inv2'_reachable; inv2_reachable).
   Client steps: one dispatch lemma per label (the edge typing cedge2_ok stays folded; the per-label lemma of
   LocksInv.v reads it through cedge2_typed), background steps from LocksInvBg.v.
   Consequences: deadlock freedom without hypotheses (no_deadlock); a waiting client's acknowledgement channel is
   still registered with the goroutine it addressed (ack_registered). *)
From GL Require Import Conc.Locks Conc.LocksProofs Conc.LocksDeadlock Conc.LocksInv Conc.LocksInvBg.

Lemma cedge1_client : forall pc l pc', cedge1_ok pc (l, pc') = true -> client_lbl l = true.
Proof. intros pc l pc' H. unfold cedge1_ok in H. bsplit. assumption. Qed.

(* a step that leaves the shared state as it is: the label only tests something *)
Lemma step_pure : forall s i l pc',
  inv2' s -> cedge2_ok (cli s i) (l, pc') = true -> lbl_side s i (cli s i) l ->
  lbl_is l LCloseChan = false -> lbl_is l LGiveW = false -> lbl_is l LRelWU = false ->
  lbl_is l (LCasClosed true) = false ->
  inv2' (set_pc s i pc').
Proof.
  intros s i l pc' I EK S N1 N2 N3 N4. apply cedge2_typed in EK. apply inv2_pure; auto.
  - exact (typed_moves _ _ _ _ _ EK S).
  - exact (ct_keep_early _ _ _ EK N1).
  - exact (ct_keep_merge _ _ _ EK N2 N3).
  - exact (ct_keep_phase _ _ _ EK N4).
Qed.

(* the same when the label changes a field the invariant does not look at *)
Lemma step_pure_frame : forall s sx i l pc', inv2' s -> same2 s sx -> cli sx = cli s ->
  cedge2_ok (cli s i) (l, pc') = true -> lbl_side sx i (cli s i) l ->
  lbl_is l LCloseChan = false -> lbl_is l LGiveW = false -> lbl_is l LRelWU = false ->
  lbl_is l (LCasClosed true) = false ->
  inv2' (set_pc sx i pc').
Proof.
  intros s sx i l pc' I2 S EC EK SD N1 N2 N3 N4. rewrite <- EC in EK, SD.
  apply (step_pure sx i l); auto. exact (inv2'_frame s sx S I2).
Qed.

Section Dispatch.
Variables (s : state) (i : nat) (pc' : cpc) (arg : nat) (s1 : state).
Hypothesis I1 : inv1 s.
Hypothesis I2 : inv2' s.

(* the labels whose only effect on the shared state is a guard the invariant does not need *)
Lemma cs_pure : forall l,
  match l with LTau | LBegin _ | LEnd | LIfMemNil | LWaitBg | LRecvErr | LRecvPerr | LOpenC | LSeeClosed => True | _ => False end ->
  cedge2_ok (cli s i) (l, pc') = true -> lsem fixed (PCli i) l arg s = Some s1 -> inv2' (set_pc s1 i pc').
Proof.
  intros l P EK L. destruct l; try contradiction; simpl in L; first [inv_guard L G | inv_some L];
    exact (step_pure _ i _ pc' I2 EK I eq_refl eq_refl eq_refl eq_refl).
Qed.

(* the labels that write a field the invariant does not look at *)
Lemma cs_frame : forall l,
  match l with LClearMems | LLockC | LUnlockC | LCommitOk | LCommitFailW => True | _ => False end ->
  cedge2_ok (cli s i) (l, pc') = true -> lsem fixed (PCli i) l arg s = Some s1 -> inv2' (set_pc s1 i pc').
Proof.
  intros l P EK L. destruct l; try contradiction; simpl in L; first [inv_guard L G | inv_some L];
    refine (step_pure_frame s _ i _ pc' I2 _ _ EK _ eq_refl eq_refl eq_refl eq_refl); repeat split; reflexivity.
Qed.

Lemma cs_acq : forall l, l = LAcqW \/ l = LAcqWRO ->
  cedge2_ok (cli s i) (l, pc') = true -> lsem fixed (PCli i) l arg s = Some s1 -> inv2' (set_pc s1 i pc').
Proof. intros l P EK L. destruct P; subst l; simpl in L; inv_guard L G; apply wl_free_true in G; eapply step_acq; eauto. Qed.

Lemma cs_tau : cedge2_ok (cli s i) (LTau, pc') = true -> lsem fixed (PCli i) LTau arg s = Some s1 -> inv2' (set_pc s1 i pc').
Proof. exact (cs_pure LTau I). Qed.
Lemma cs_begin : forall c, cedge2_ok (cli s i) (LBegin c, pc') = true -> lsem fixed (PCli i) (LBegin c) arg s = Some s1 -> inv2' (set_pc s1 i pc').
Proof. intro c. exact (cs_pure (LBegin c) I). Qed.
Lemma cs_end : cedge2_ok (cli s i) (LEnd, pc') = true -> lsem fixed (PCli i) LEnd arg s = Some s1 -> inv2' (set_pc s1 i pc').
Proof. exact (cs_pure LEnd I). Qed.

Lemma cs_ifclosed : forall b, cedge2_ok (cli s i) (LIfClosed b, pc') = true -> lsem fixed (PCli i) (LIfClosed b) arg s = Some s1 -> inv2' (set_pc s1 i pc').
Proof.
  intros b EK L. simpl in L. inv_guard L G. apply Bool.eqb_prop in G.
  apply (step_pure s i (LIfClosed b) pc' I2 EK); try reflexivity. destruct b; [exact I | exact G].
Qed.

Lemma cs_cas : forall b, cedge2_ok (cli s i) (LCasClosed b, pc') = true -> lsem fixed (PCli i) (LCasClosed b) arg s = Some s1 -> inv2' (set_pc s1 i pc').
Proof.
  intros b EK L. destruct b; simpl in L; inv_guard L G.
  - apply negb_true_iff in G. apply step_cas; auto.
  - exact (step_pure s i (LCasClosed false) pc' I2 EK I eq_refl eq_refl eq_refl eq_refl).
Qed.

Lemma cs_closechan : cedge2_ok (cli s i) (LCloseChan, pc') = true -> lsem fixed (PCli i) LCloseChan arg s = Some s1 -> inv2' (set_pc s1 i pc').
Proof. intros EK L. simpl in L. inv_some L. apply step_closechan; auto. Qed.

Lemma cs_readdbtr : forall b, cedge2_ok (cli s i) (LReadDbTr b, pc') = true -> lsem fixed (PCli i) (LReadDbTr b) arg s = Some s1 -> inv2' (set_pc s1 i pc').
Proof.
  intros b EK L. destruct b; simpl in L.
  - destruct (trown s) as [o|] eqn:HO; [|discriminate]. inv_some L. eapply step_readdbtr; eauto.
  - inv_guard L G. apply is_none_true in G. eapply step_readdbtr; eauto.
Qed.

Lemma cs_iftropen : forall b, cedge2_ok (cli s i) (LIfTrOpen b, pc') = true -> lsem fixed (PCli i) (LIfTrOpen b) arg s = Some s1 -> inv2' (set_pc s1 i pc').
Proof.
  intros b EK L. simpl in L. inv_guard L G. apply Bool.eqb_prop in G. rewrite tr_current_trc in G.
  exact (step_pure s i (LIfTrOpen b) pc' I2 EK G eq_refl eq_refl eq_refl eq_refl).
Qed.

Lemma cs_ifmemnil : cedge2_ok (cli s i) (LIfMemNil, pc') = true -> lsem fixed (PCli i) LIfMemNil arg s = Some s1 -> inv2' (set_pc s1 i pc').
Proof. exact (cs_pure LIfMemNil I). Qed.
Lemma cs_waitbg : cedge2_ok (cli s i) (LWaitBg, pc') = true -> lsem fixed (PCli i) LWaitBg arg s = Some s1 -> inv2' (set_pc s1 i pc').
Proof. exact (cs_pure LWaitBg I). Qed.
Lemma cs_recverr : cedge2_ok (cli s i) (LRecvErr, pc') = true -> lsem fixed (PCli i) LRecvErr arg s = Some s1 -> inv2' (set_pc s1 i pc').
Proof. exact (cs_pure LRecvErr I). Qed.
Lemma cs_recvperr : cedge2_ok (cli s i) (LRecvPerr, pc') = true -> lsem fixed (PCli i) LRecvPerr arg s = Some s1 -> inv2' (set_pc s1 i pc').
Proof. exact (cs_pure LRecvPerr I). Qed.
Lemma cs_openc : cedge2_ok (cli s i) (LOpenC, pc') = true -> lsem fixed (PCli i) LOpenC arg s = Some s1 -> inv2' (set_pc s1 i pc').
Proof. exact (cs_pure LOpenC I). Qed.
Lemma cs_seeclosed : cedge2_ok (cli s i) (LSeeClosed, pc') = true -> lsem fixed (PCli i) LSeeClosed arg s = Some s1 -> inv2' (set_pc s1 i pc').
Proof. exact (cs_pure LSeeClosed I). Qed.

Lemma cs_clearmems : cedge2_ok (cli s i) (LClearMems, pc') = true -> lsem fixed (PCli i) LClearMems arg s = Some s1 -> inv2' (set_pc s1 i pc').
Proof. exact (cs_frame LClearMems I). Qed.
Lemma cs_lockc : cedge2_ok (cli s i) (LLockC, pc') = true -> lsem fixed (PCli i) LLockC arg s = Some s1 -> inv2' (set_pc s1 i pc').
Proof. exact (cs_frame LLockC I). Qed.
Lemma cs_unlockc : cedge2_ok (cli s i) (LUnlockC, pc') = true -> lsem fixed (PCli i) LUnlockC arg s = Some s1 -> inv2' (set_pc s1 i pc').
Proof. exact (cs_frame LUnlockC I). Qed.
Lemma cs_commitok : cedge2_ok (cli s i) (LCommitOk, pc') = true -> lsem fixed (PCli i) LCommitOk arg s = Some s1 -> inv2' (set_pc s1 i pc').
Proof. exact (cs_frame LCommitOk I). Qed.
Lemma cs_commitfail : cedge2_ok (cli s i) (LCommitFailW, pc') = true -> lsem fixed (PCli i) LCommitFailW arg s = Some s1 -> inv2' (set_pc s1 i pc').
Proof. exact (cs_frame LCommitFailW I). Qed.

Lemma cs_acqw : cedge2_ok (cli s i) (LAcqW, pc') = true -> lsem fixed (PCli i) LAcqW arg s = Some s1 -> inv2' (set_pc s1 i pc').
Proof. exact (cs_acq LAcqW (or_introl eq_refl)). Qed.
Lemma cs_acqwro : cedge2_ok (cli s i) (LAcqWRO, pc') = true -> lsem fixed (PCli i) LAcqWRO arg s = Some s1 -> inv2' (set_pc s1 i pc').
Proof. exact (cs_acq LAcqWRO (or_intror eq_refl)). Qed.
Lemma cs_acqwclose : cedge2_ok (cli s i) (LAcqWClose, pc') = true -> lsem fixed (PCli i) LAcqWClose arg s = Some s1 -> inv2' (set_pc s1 i pc').
Proof. intros EK L. simpl in L. inv_guard L G. apply wl_free_true in G. eapply step_acqclose; eauto. Qed.

Lemma cs_relw : cedge1_ok (cli s i) (LRelW, pc') = true -> cedge2_ok (cli s i) (LRelW, pc') = true -> lsem fixed (PCli i) LRelW arg s = Some s1 -> inv2' (set_pc s1 i pc').
Proof. intros EK1 EK L. simpl in L. inv_guard L G. apply wl_is_true in G. apply (step_rel s i pc' LRelW); auto. Qed.
Lemma cs_relwu : cedge1_ok (cli s i) (LRelWU, pc') = true -> cedge2_ok (cli s i) (LRelWU, pc') = true -> lsem fixed (PCli i) LRelWU arg s = Some s1 -> inv2' (set_pc s1 i pc').
Proof.
  intros EK1 EK L. simpl in L. inv_guard L G. apply andb_prop in G. destruct G as [G G3]. apply andb_prop in G. destruct G as [G G2].
  apply wl_is_true in G. apply is_none_true in G3. apply (step_rel s i pc' LRelWU); auto. right. repeat split; auto.
  destruct (merged s); [reflexivity | discriminate].
Qed.

Lemma cs_givew : cedge1_ok (cli s i) (LGiveW, pc') = true -> cedge2_ok (cli s i) (LGiveW, pc') = true -> lsem fixed (PCli i) LGiveW arg s = Some s1 -> inv2' (set_pc s1 i pc').
Proof.
  intros EK1 EK L. simpl in L. destruct (pend s) as [n|] eqn:HP; [|discriminate]. inv_guard L G.
  apply andb_prop in G. destruct G as [G G3]. apply andb_prop in G. destruct G as [G G2].
  apply wl_is_true in G. apply cpc_is_W2_true in G3. eapply step_givew; eauto.
  destruct (merged s); [reflexivity | discriminate].
Qed.

Lemma cs_ackone : cedge2_ok (cli s i) (LAckOne, pc') = true -> lsem fixed (PCli i) LAckOne arg s = Some s1 -> inv2' (set_pc s1 i pc').
Proof.
  intros EK L. simpl in L. inv_guard L G. apply andb_prop in G. destruct G as [G G2].
  apply mem_nat_in in G. apply cpc_is_W3_true in G2. eapply step_ackone; eauto.
Qed.

Lemma cs_mergerecv : forall f, cedge2_ok (cli s i) (LMergeRecv f, pc') = true -> lsem fixed (PCli i) (LMergeRecv f) arg s = Some s1 -> inv2' (set_pc s1 i pc').
Proof.
  intros f EK L. simpl in L. inv_guard L G. apply andb_prop in G. destruct G as [G G2].
  apply cpc_is_W1m_true in G. apply is_none_true in G2. eapply step_mergerecv; eauto.
Qed.

Lemma cs_mergedtrue : cedge2_ok (cli s i) (LMergedTrue, pc') = true -> lsem fixed (PCli i) LMergedTrue arg s = Some s1 -> inv2' (set_pc s1 i pc').
Proof.
  intros EK L. simpl in L. destruct (pend s) as [n|] eqn:HP; [|discriminate]. inv_guard L G.
  apply cpc_is_W2_true in G. eapply step_mergedtrue; eauto.
Qed.

Lemma cs_wtotr : cedge1_ok (cli s i) (LWToTr, pc') = true -> cedge2_ok (cli s i) (LWToTr, pc') = true -> lsem fixed (PCli i) LWToTr arg s = Some s1 -> inv2' (set_pc s1 i pc').
Proof. intros EK1 EK L. simpl in L. inv_guard L G. apply wl_is_true in G. eapply step_wtotr; eauto. Qed.

Lemma cs_relwtr : cedge2_ok (cli s i) (LRelWTr, pc') = true -> lsem fixed (PCli i) LRelWTr arg s = Some s1 -> inv2' (set_pc s1 i pc').
Proof.
  intros EK L. simpl in L. destruct (wl s) eqn:HW; try discriminate. inv_guard L G. eapply step_reltr; eauto.
Qed.

Lemma cs_setro : cedge1_ok (cli s i) (LSendErrSetRO, pc') = true -> cedge2_ok (cli s i) (LSendErrSetRO, pc') = true -> lsem fixed (PCli i) LSendErrSetRO arg s = Some s1 -> inv2' (set_pc s1 i pc').
Proof.
  intros EK1 EK L. simpl in L. destruct (ce_after ERO (ce s)) as [c|] eqn:CA; [|discriminate]. inv_guard L G.
  apply wl_is_true in G.
  assert (c = E_per /\ (ce s = E_no \/ ce s = E_has)).
  { destruct (ce s); simpl in CA; try discriminate; inversion CA; auto. }
  destruct H as [-> HE]. eapply step_setro; eauto.
Qed.

Lemma cs_lockt : cedge2_ok (cli s i) (LLockT, pc') = true -> lsem fixed (PCli i) LLockT arg s = Some s1 -> inv2' (set_pc s1 i pc').
Proof.
  intros EK L. simpl in L. destruct (tr_current s i) eqn:TC.
  - inv_guard L G. apply is_none_true in G. apply step_lockt; auto.
  - inv_some L. rewrite tr_current_trc in TC.
    exact (step_pure s1 i LLockT pc' I2 EK (or_introl TC) eq_refl eq_refl eq_refl eq_refl).
Qed.

Lemma cs_unlockt : cedge2_ok (cli s i) (LUnlockT, pc') = true -> lsem fixed (PCli i) LUnlockT arg s = Some s1 -> inv2' (set_pc s1 i pc').
Proof.
  intros EK L. simpl in L. destruct (onat_eqb (tl s) (Some i)) eqn:TC.
  - inv_some L. apply step_unlockt; auto.
    destruct (tl s) as [h|]; simpl in TC; [apply Nat.eqb_eq in TC; congruence | discriminate].
  - inv_some L. exact (step_pure s1 i LUnlockT pc' I2 EK I eq_refl eq_refl eq_refl eq_refl).
Qed.

Lemma cs_sendcmd : forall b k, cedge2_ok (cli s i) (LSendCmd b k, pc') = true -> lsem fixed (PCli i) (LSendCmd b k) arg s = Some s1 -> inv2' (set_pc s1 i pc').
Proof.
  intros b k EK L.
  assert (KN : k <> XNo) by apply (ct_sendcmd _ _ _ (cedge2_typed _ _ _ EK)).
  destruct b; simpl in L.
  - destruct (mc s) eqn:HM; try discriminate. inv_some L.
    destruct k; [elim KN; reflexivity | apply (step_sendcmd_bm s i pc' XAck); auto | apply (step_sendcmd_bm s i pc' XRange); auto].
  - destruct (t_recv_cmd (tc s)) eqn:HR; [|discriminate]. inv_some L.
    destruct k; [elim KN; reflexivity | apply (step_sendcmd_bt s i pc' XAck); auto | apply (step_sendcmd_bt s i pc' XRange); auto].
Qed.

(* compTrigger: the command is taken if the goroutine is receptive, dropped otherwise *)
Lemma cs_trysend : forall b, cedge2_ok (cli s i) (LTrySendCmd b, pc') = true -> lsem fixed (PCli i) (LTrySendCmd b) arg s = Some s1 -> inv2' (set_pc s1 i pc').
Proof.
  intros b EK L. destruct b; simpl in L; inv_some L.
  - destruct (mc s) eqn:HM; [apply step_trysend_bm; auto | ..];
      exact (step_pure s i (LTrySendCmd BM) pc' I2 EK I eq_refl eq_refl eq_refl eq_refl).
  - destruct (t_recv_cmd (tc s)) eqn:HR; [apply step_trysend_bt; auto |].
    exact (step_pure s i (LTrySendCmd BT) pc' I2 EK I eq_refl eq_refl eq_refl eq_refl).
Qed.

End Dispatch.

Lemma inv2_step_cli : forall s i k arg s', inv1 s -> inv2' s -> step fixed s (ACli i k arg) = Some s' -> inv2' s'.
Proof.
  intros s i k arg s' I1 I2 H. simpl in H.
  destruct (nth_error (cedges fixed (cli s i)) k) as [[l pc']|] eqn:N; [|discriminate].
  pose proof (nth_forallb _ _ _ _ (cedges1_ok (cli s i)) N) as EK1.
  pose proof (nth_forallb _ _ _ _ (cedges2_ok (cli s i)) N) as EK2.
  destruct (lsem fixed (PCli i) l arg s) as [s1|] eqn:L; [|discriminate]. inversion H; subst s'; clear H N.
  pose proof (cedge1_client _ _ _ EK1) as CL.
  destruct l; try discriminate CL.
  - eapply cs_tau; eauto.
  - eapply cs_begin; eauto.
  - eapply cs_end; eauto.
  - eapply cs_ifclosed; eauto.
  - eapply cs_cas; eauto.
  - eapply cs_closechan; eauto.
  - eapply cs_readdbtr; eauto.
  - eapply cs_iftropen; eauto.
  - eapply cs_ifmemnil; eauto.
  - eapply cs_clearmems; eauto.
  - eapply cs_waitbg; eauto.
  - eapply cs_acqw; eauto.
  - eapply cs_acqwro; eauto.
  - eapply cs_acqwclose; eauto.
  - eapply cs_relw; eauto.
  - eapply cs_relwu; eauto.
  - eapply cs_givew; eauto.
  - eapply cs_ackone; eauto.
  - eapply cs_mergerecv; eauto.
  - eapply cs_mergedtrue; eauto.
  - eapply cs_wtotr; eauto.
  - eapply cs_relwtr; eauto.
  - eapply cs_setro; eauto.
  - eapply cs_recverr; eauto.
  - eapply cs_recvperr; eauto.
  - eapply cs_seeclosed; eauto.
  - eapply cs_lockc; eauto.
  - eapply cs_unlockc; eauto.
  - eapply cs_lockt; eauto.
  - eapply cs_unlockt; eauto.
  - eapply cs_sendcmd; eauto.
  - eapply cs_trysend; eauto.
  - eapply cs_commitok; eauto.
  - eapply cs_commitfail; eauto.
  - eapply cs_openc; eauto.
Qed.

Theorem inv2_step : forall s a s', inv1 s -> t_wf (tc s) = true -> inv2' s -> step fixed s a = Some s' -> inv2' s'.
Proof.
  intros s a s' I1 W I2 H. destruct a.
  - eapply inv2_step_cli; eauto.
  - eapply inv2_step_m; eauto.
  - eapply inv2_step_t; eauto.
  - eapply inv2_step_ce; eauto.
Qed.

Theorem inv2'_reachable : forall s, reachable fixed s -> inv2' s.
Proof.
  induction 1 as [| s a s' R IH ST].
  - apply inv2'_init.
  - eapply inv2_step; eauto using inv1_reachable, twf_reachable.
Qed.

Theorem inv2_reachable : forall s, reachable fixed s -> inv2 s.
Proof. intros s R. apply inv2_of_parts. apply inv2'_reachable; auto. Qed.

(* deadlock freedom: in every reachable state with a call in progress (or an open transaction whose owner has
   not yet committed or discarded it) some step other than a new arrival is enabled *)
Theorem no_deadlock : forall s, reachable fixed s -> pending s ->
  exists a, is_arrival fixed s a = false /\ exists s', step fixed s a = Some s'.
Proof. intros s R P. exact (progress s (inv1_reachable s R) (inv2_reachable s R) P). Qed.

(* no lost wake-up: while a client waits in the second select of compTriggerWait, the goroutine it addressed
   still holds its acknowledgement channel (as its current command, or -- tCompaction -- in its wait queue) and
   is not at a point where it would have forgotten it (mCompaction: not at M0 / MDone; tCompaction: a command of
   its own is only held away from the receptive points, and its queue is non-empty only away from T2 / TDone).
   The statement is about these positions only: that every path from them, the exit paths included, delivers the
   acknowledgement is not part of it. *)
Theorem ack_registered : forall s i, reachable fixed s ->
  (is_trigw BM (cli s i) = true -> mx s = Some (i, ctk s i) /\ mc s <> M0 /\ mc s <> MDone) /\
  (is_trigw BT (cli s i) = true ->
     (tx s = Some (i, ctk s i) /\ tx_none_pc (tc s) = false) \/
     (In (i, ctk s i) (tq s) /\ tc s <> T2 /\ tc s <> TDone)).
Proof.
  intros s i R. pose proof (inv2_reachable s R) as I2. split; intro H.
  - pose proof (l1 s I2 i H) as X. repeat split; auto; intro E;
      (assert (Y : mx s = None) by (apply (g8 s I2); auto)); congruence.
  - destruct (l2 s I2 i H) as [X | X].
    + left. split; auto. destruct (tx_none_pc (tc s)) eqn:E; auto. pose proof (g9a s I2 E). congruence.
    + right. repeat split; auto; intro E;
        (assert (Y : tq s = []) by (apply (g9b s I2); auto)); rewrite Y in X; destruct X.
Qed.
