(* Conc/CacheProofs.v — the invariant [Inv] of the sequential cache model (the components of Conc/CacheInv.v put
   together) is preserved by every micro-step (mBucket.get, Node.unRefInternal/External, Cache.delete,
   callFinalizer, the lru methods) and hence by every operation: [Good] holds in every [reachable] state.
   The property statements of C17 are derived from it in Conc/CacheTheorems.v.  Proof file. *)
From GL Require Import Conc.Cache Conc.CacheLemmas Conc.CacheInv.
From GL Require Mem.ListLemmas.
From Coq Require Import Lia.

Ltac sred := cbn [s_nodes s_cacher s_cap s_used s_order s_handles s_closed s_forced s_stat_nodes
  s_stat_size s_next_nid s_next_vid s_next_hid s_next_did s_log s_panic set_nodes set_cap set_used
  set_order set_handles set_closed set_stats set_next_nid set_next_vid set_next_hid set_next_did
  set_log set_panic emit upd_node] in *.

Section WithZq.
Variable zq : N -> bool.

(* p: the in-flight references of Conc/CacheInv.v; the last clause: the model's panic flag is down *)
Record Inv (p : N -> Z) (s : state) : Prop := {
  inv_s : InvS s; inv_r : InvR zq p s; inv_l : InvL s; inv_np : s_panic s = false }.

Definition CapOk (s : state) : Prop := (s_used s <= Z.of_N (s_cap s))%Z.

Lemma Inv_pext p q s : (forall y, p y = q y) -> Inv p s -> Inv q s.
Proof. intros E [A B C D]. split; auto. eapply RInv_pext; eauto. Qed.

Lemma Inv_ids p s : Inv p s -> NoDup (ids (s_nodes s)).
Proof. intro H. apply (si_ids _ _ _ _ (inv_s _ _ H)). Qed.

Lemma Inv_find_id p s n : Inv p s -> In n (s_nodes s) -> find_id (n_id n) (s_nodes s) = Some n.
Proof. intros H Hn. apply find_id_in; [eapply Inv_ids|]; eauto. Qed.

Lemma Inv_same_id p s n m : Inv p s -> In n (s_nodes s) -> In m (s_nodes s) -> n_id n = n_id m -> n = m.
Proof. intro H. apply same_id_eq. eapply Inv_ids; eauto. Qed.

Lemma Inv_p_nonneg p s : Inv p s -> forall y, (0 <= p y)%Z.
Proof. intro H. apply (ri_p _ _ _ _ _ _ _ _ _ (inv_r _ _ H)). Qed.

Lemma Inv_node p s n :
  Inv p s -> s_forced s = false -> In n (s_nodes s) -> node_ok zq p (s_handles s) (s_closed s) n.
Proof. intro H. apply (RInv_node _ _ _ _ _ _ _ _ _ _ (inv_r _ _ H)). Qed.

Lemma Inv_in_order p s n : Inv p s -> In n (s_nodes s) -> (In (n_id n) (s_order s) <-> resident n = true).
Proof.
  intros H Hn. rewrite (si_ord _ _ _ _ (inv_s _ _ H)). split; [|eauto].
  intros (m & Hm & e & Hr). now rewrite (Inv_same_id _ _ _ _ H Hn Hm (eq_sym e)).
Qed.

Lemma forced_false_of_open p s : Inv p s -> s_closed s = false -> s_forced s = false.
Proof.
  intros H Hc. destruct (s_forced s) eqn:E; auto. pose proof (ri_fc _ _ _ _ _ _ _ _ _ (inv_r _ _ H) E). congruence.
Qed.

Lemma p_nonneg_of_padd x p : (forall y, 0 <= padd x 1 p y)%Z -> (0 <= p x)%Z -> forall y, (0 <= p y)%Z.
Proof.
  intros H Hx y. destruct (N.eq_dec y x) as [->|ne]; auto. specialize (H y). now rewrite padd_other in H.
Qed.

Lemma padd_nonneg x p : (forall y, 0 <= p y)%Z -> forall y, (0 <= padd x 1 p y)%Z.
Proof. intros H y. unfold padd. specialize (H y). destruct (y =? x); lia. Qed.

Lemma remove_upd x f l : pres f -> remove_id x (upd_id x f l) = remove_id x l.
Proof.
  intro Hf. unfold remove_id, upd_id. induction l as [|a l IH]; cbn; auto.
  destruct (n_id a =? x) eqn:E.
  - rewrite (proj1 (Hf a)), E. cbn. auto.
  - rewrite E. cbn. f_equal. auto.
Qed.

Lemma upd_upd x f g l : pres f -> upd_id x g (upd_id x f l) = upd_id x (fun n => g (f n)) l.
Proof.
  intro Hf. unfold upd_id. rewrite map_map. apply map_ext. intro a.
  destruct (n_id a =? x) eqn:E; [rewrite (proj1 (Hf a)), E|rewrite E]; reflexivity.
Qed.

(* what the reference-dropping steps leave alone *)
Definition same_lru (s s' : state) : Prop :=
  s_cap s' = s_cap s /\ s_used s' = s_used s /\ s_order s' = s_order s /\ s_closed s' = s_closed s /\
  s_forced s' = s_forced s /\ s_cacher s' = s_cacher s /\ s_handles s' = s_handles s /\
  s_next_hid s' = s_next_hid s /\ s_next_nid s' = s_next_nid s /\ s_next_vid s' = s_next_vid s /\
  s_next_did s' = s_next_did s.

Lemma same_lru_refl s : same_lru s s.
Proof. repeat split. Qed.
Lemma same_lru_trans a b c : same_lru a b -> same_lru b c -> same_lru a c.
Proof.
  unfold same_lru. intros (a1 & a2 & a3 & a4 & a5 & a6 & a7 & a8 & a9 & a10 & a11)
    (b1 & b2 & b3 & b4 & b5 & b6 & b7 & b8 & b9 & b10 & b11). repeat split; congruence.
Qed.

Lemma cache_delete_same ns key s : same_lru s (cache_delete ns key s).
Proof.
  unfold cache_delete. destruct (find_key ns key (s_nodes s)); [|apply same_lru_refl].
  destruct (n_ref n =? 0)%Z; [|apply same_lru_refl]. repeat split.
Qed.

Lemma call_finalizer_same f x s : same_lru s (call_finalizer f x s).
Proof.
  unfold call_finalizer. destruct (find_id x (s_nodes s)); [|apply same_lru_refl]. repeat split.
Qed.

Lemma unref_internal_same x s : same_lru s (unref_internal x s).
Proof.
  unfold unref_internal. destruct (find_id x (s_nodes s)); [|apply same_lru_refl].
  destruct (n_ref n - 1 =? 0)%Z; [|repeat split].
  eapply same_lru_trans; [|apply cache_delete_same]. repeat split.
Qed.

Lemma unref_external_same x s : same_lru s (unref_external x s).
Proof.
  unfold unref_external. destruct (find_id x (s_nodes s)); [|apply same_lru_refl].
  destruct (n_ref n - 1 =? 0)%Z; [|repeat split]. destruct (s_closed s).
  - eapply same_lru_trans; [|apply call_finalizer_same]. repeat split.
  - eapply same_lru_trans; [|apply cache_delete_same]. repeat split.
Qed.

Lemma release_all_same ev s : same_lru s (release_all ev s).
Proof.
  apply (fold_left_rel same_lru); [apply same_lru_refl|apply same_lru_trans|intros; apply unref_external_same].
Qed.

Lemma same_lru_capok s s' : same_lru s s' -> CapOk s -> CapOk s'.
Proof. unfold CapOk. intros (a & b & _). now rewrite a, b. Qed.

Definition same_misc (s s' : state) : Prop :=
  s_cap s' = s_cap s /\ s_closed s' = s_closed s /\ s_forced s' = s_forced s /\ s_cacher s' = s_cacher s /\
  s_handles s' = s_handles s /\ s_next_hid s' = s_next_hid s /\ s_next_did s' = s_next_did s /\
  s_next_vid s' = s_next_vid s.

Lemma same_lru_misc s s' : same_lru s s' -> same_misc s s'.
Proof. unfold same_lru, same_misc. tauto. Qed.
Lemma same_misc_refl s : same_misc s s.
Proof. repeat split. Qed.
Lemma same_misc_trans a b c : same_misc a b -> same_misc b c -> same_misc a c.
Proof. unfold same_misc. intros (a1 & a2 & a3 & a4 & a5 & a6 & a7 & a8) (b1 & b2 & b3 & b4 & b5 & b6 & b7 & b8). repeat split; congruence. Qed.

(* what every step guarantees about the nodes that existed before it: a node is never re-created
   under an old identity, a ban mark is never removed, a constructed value is never replaced
   (it only disappears through finalisation, which on an open cache also unlinks the node) *)
Definition ExtN (l : list node) (nn : N) (c : bool) (l' : list node) (nn' : N) (c' : bool) : Prop :=
  nn <= nn' /\ (c = true -> c' = true) /\
  forall m', In m' l' -> n_id m' < nn ->
    exists m, In m l /\ n_id m = n_id m' /\ keyof m = keyof m' /\
              (n_lru m = LBanned -> n_lru m' = LBanned) /\
              (n_val m <> None -> n_val m' = n_val m \/ c' = true).

Definition Ext (s s' : state) : Prop :=
  ExtN (s_nodes s) (s_next_nid s) (s_closed s) (s_nodes s') (s_next_nid s') (s_closed s').

Lemma Ext_refl s : (forall n, In n (s_nodes s) -> n_id n < s_next_nid s) -> Ext s s.
Proof.
  intro F. split; [lia|]. split; auto. intros m' Hm _. exists m'. repeat split; auto.
Qed.

Lemma ExtN_refl l nn c : ExtN l nn c l nn c.
Proof. split; [lia|]. split; auto. intros m' Hm _. exists m'. repeat split; auto. Qed.

Lemma ExtN_trans l nn c l' nn' c' l'' nn'' c'' :
  ExtN l nn c l' nn' c' -> ExtN l' nn' c' l'' nn'' c'' -> ExtN l nn c l'' nn'' c''.
Proof.
  intros (A1 & A2 & A3) (B1 & B2 & B3). split; [lia|]. split; auto.
  intros m'' Hm'' Hid. destruct (B3 m'' Hm'') as (m' & Hm' & i' & k' & b' & v'); [lia|].
  destruct (A3 m' Hm') as (m & Hm & i & k & b & v); [lia|].
  exists m. repeat split; auto; try congruence. intro Hv.
  destruct (v Hv) as [e|e]; [|right; auto]. assert (n_val m' <> None) as Hv' by congruence.
  destruct (v' Hv') as [e'|e']; [left; congruence|now right].
Qed.

Lemma Ext_trans a b c : Ext a b -> Ext b c -> Ext a c.
Proof. apply ExtN_trans. Qed.

Lemma ExtN_upd l nn c x f :
  pres f ->
  (forall m, In m l -> n_id m = x -> (n_lru m = LBanned -> n_lru (f m) = LBanned) /\
                                      (n_val m <> None -> n_val (f m) = n_val m \/ c = true)) ->
  ExtN l nn c (upd_id x f l) nn c.
Proof.
  intros Hf H. split; [lia|]. split; auto. intros m' Hm' _. apply in_upd in Hm'.
  destruct Hm' as (m & Hm & ->). exists m. destruct (N.eqb_spec (n_id m) x) as [e|ne].
  - destruct (Hf m) as (i & a & b). destruct (H m Hm e). repeat split; auto. unfold keyof. congruence.
  - repeat split; auto.
Qed.

Lemma ExtN_remove l nn c x : ExtN l nn c (remove_id x l) nn c.
Proof.
  split; [lia|]. split; auto. intros m' Hm' _. apply in_remove in Hm'. exists m'. repeat split; tauto.
Qed.

Lemma ExtN_insert l nn c ns key r v sz d lr :
  ExtN l nn c (insert_node (mkNode ns key nn r v sz d lr) l) (nn + 1) c.
Proof.
  split; [lia|]. split; auto. intros m' Hm' Hid. apply in_insert in Hm'. destruct Hm' as [->|Hm'].
  - cbn in Hid. lia.
  - exists m'. repeat split; auto.
Qed.

Lemma cache_delete_ext ns key s : Ext s (cache_delete ns key s).
Proof.
  unfold cache_delete, Ext. destruct (find_key ns key (s_nodes s)); [|apply ExtN_refl].
  destruct (n_ref n =? 0)%Z; [|apply ExtN_refl]. sred. apply ExtN_remove.
Qed.

Lemma call_finalizer_ext f x s : s_closed s = true -> Ext s (call_finalizer f x s).
Proof.
  intro Hc. unfold call_finalizer, Ext. destruct (find_id x (s_nodes s)); [|apply ExtN_refl].
  unfold upd_node. sred. apply ExtN_upd.
  - intro m; repeat split.
  - intros m _ _. split; auto.
Qed.

Lemma ref_upd_ext x r s : Ext s (upd_node x (nd_ref r) s).
Proof. unfold Ext, upd_node. sred. apply ExtN_upd; [auto with cache|]. intros m _ _. split; auto. Qed.

Lemma unref_external_ext x s : Ext s (unref_external x s).
Proof.
  unfold unref_external. destruct (find_id x (s_nodes s)); [|apply ExtN_refl].
  destruct (n_ref n - 1 =? 0)%Z; [|apply ref_upd_ext]. destruct (s_closed s) eqn:Hc.
  - eapply Ext_trans; [apply ref_upd_ext|apply call_finalizer_ext]. unfold upd_node. sred. exact Hc.
  - eapply Ext_trans; [apply ref_upd_ext|apply cache_delete_ext].
Qed.

Lemma release_all_ext ev s : Ext s (release_all ev s).
Proof.
  apply (fold_left_rel Ext); [intro; apply ExtN_refl|apply Ext_trans|intros; apply unref_external_ext].
Qed.

(* changing the lru mark of a node that is not banned *)
Lemma lru_upd_ext x l s n :
  find_id x (s_nodes s) = Some n -> n_lru n <> LBanned -> NoDup (ids (s_nodes s)) ->
  ExtN (s_nodes s) (s_next_nid s) (s_closed s) (upd_id x (nd_lru l) (s_nodes s)) (s_next_nid s) (s_closed s).
Proof.
  intros F Hl Hnd. destruct (find_id_some _ _ _ F) as [Hn Hx]. apply ExtN_upd; auto with cache.
  intros m Hm Hmx. assert (m = n) as -> by (eapply same_id_eq; eauto; congruence). split; auto. tauto.
Qed.

Lemma resident_lru n : resident n = true -> n_lru n = LResident.
Proof. unfold resident. destruct (n_lru n); auto; discriminate. Qed.

(* the step from s to s' ends in a state that satisfies the invariant with in-flight references p,
   leaves the flags and counters of same_misc alone, does not push the charge over the capacity and
   forgets nothing that Ext records *)
Definition kept (p : N -> Z) (s s' : state) : Prop :=
  Inv p s' /\ same_misc s s' /\ (CapOk s -> CapOk s') /\ Ext s s'.

Lemma kept_refl p s : Inv p s -> kept p s s.
Proof. intro H. split; [exact H|split; [apply same_misc_refl|split; [auto|apply ExtN_refl]]]. Qed.

Lemma kept_trans p q a b c : kept p a b -> kept q b c -> kept q a c.
Proof.
  intros (_ & M & C & X) (H & M' & C' & X').
  split; [exact H|split; [eapply same_misc_trans; eauto|split; [auto|eapply Ext_trans; eauto]]].
Qed.

(* the lru is consulted only by a cache that has one *)
Lemma kept_cacher p s f : Inv p s -> kept p s (f s) -> kept p s (if s_cacher s then f s else s).
Proof. intros H K. destruct (s_cacher s); [exact K|now apply kept_refl]. Qed.

Lemma Inv_upd p p' s x f n :
  Inv p s -> In n (s_nodes s) -> n_id n = x -> pres f ->
  resident (f n) = resident n -> n_val (f n) = n_val n -> n_size (f n) = n_size n -> n_dels (f n) = n_dels n ->
  (forall y, 0 <= p' y)%Z -> (forall y, y <> x -> p' y = p y) ->
  (s_forced s = false -> node_ok zq p (s_handles s) (s_closed s) n -> node_ok zq p' (s_handles s) (s_closed s) (f n)) ->
  Inv p' (upd_node x f s).
Proof.
  intros H Hn Hx Hf Hres Hv Hsz Hd Hp' Hpo Hnode. pose proof (Inv_ids _ _ H) as Hnd.
  destruct H as [HS HR HL HP]. split; unfold InvS, InvR, InvL, upd_node; sred; auto.
  - apply (SInv_upd _ _ _ _ x f n); auto.
    + unfold ucontrib. now rewrite Hres, Hsz.
    + intro Hr. rewrite Hv. apply (si_resval _ _ _ _ HS n Hn Hr).
  - eapply (RInv_upd zq p p' _ _ _ _ _ _ _ _ x f n); eauto.
    intros _. unfold scontrib. rewrite Hsz. lia.
  - apply LInv_upd_same; auto. intros m Hm Hmx.
    rewrite (same_id_eq _ m n Hnd Hm Hn) by congruence. auto.
Qed.

(* a node whose count is 1 while an operation still holds a reference to it: that reference is the only one *)
Lemma last_ref p s x n :
  Inv (padd x 1 p) s -> (0 <= p x)%Z -> s_forced s = false -> In n (s_nodes s) -> n_id n = x -> n_ref n = 1%Z ->
  hcount x (s_handles s) = 0%Z /\ p x = 0%Z /\ resident n = false.
Proof.
  intros H Hpx Hfo Hn Hx Hr. destruct (Inv_node _ _ _ H Hfo Hn) as (E & _). rewrite Hx, padd_same, Hr in E.
  pose proof (hcount_nonneg x (s_handles s)). unfold rcount in E. destruct (resident n); repeat split; lia.
Qed.

(* the last reference of a node of the open cache is dropped: the node is unlinked and finalised *)
Lemma unref_zero_ok p s x n :
  Inv (padd x 1 p) s -> (0 <= p x)%Z -> s_closed s = false -> In n (s_nodes s) -> n_id n = x -> n_ref n = 1%Z ->
  Inv p (cache_delete (n_ns n) (n_key n) (upd_node x (nd_ref 0%Z) s)).
Proof.
  intros H Hpx Hc Hn Hx Hr. pose proof (forced_false_of_open _ _ H Hc) as Hfo.
  destruct (last_ref _ _ _ _ H Hpx Hfo Hn Hx Hr) as (Hh0 & Hp0 & Hres).
  destruct H as [HS HR HL HP]. unfold InvS, InvR, InvL in *.
  unfold cache_delete. sred.
  rewrite find_key_upd by auto with cache. rewrite (SInv_find_key _ _ _ _ _ HS Hn).
  rewrite Hx, N.eqb_refl. cbn [n_ref nd_ref Z.eqb n_id n_size n_val n_dels].
  rewrite Hx, remove_upd by auto with cache. rewrite <- Hx.
  split; unfold InvS, InvR, InvL; sred; auto.
  - apply SInv_remove; auto.
  - eapply RInv_remove; eauto. apply (si_ids _ _ _ _ HS).
    + now rewrite Hx.
    + intros y ne. rewrite Hx in ne. now rewrite padd_other.
    + now rewrite Hx.
  - apply (LInv_fin (s_nodes s) _ (s_log s) _ _ _ _ n false); auto. apply (si_ids _ _ _ _ HS).
    + intros m Hm. apply in_remove in Hm. left. exact Hm.
    + intros m0 Hm0 ne. apply in_remove. auto.
Qed.

Lemma unref_ext_int_open x s : s_closed s = false -> unref_external x s = unref_internal x s.
Proof.
  intro Hc. unfold unref_external, unref_internal. destruct (find_id x (s_nodes s)); auto. now rewrite Hc.
Qed.

Lemma dec_ok p s x n :
  Inv (padd x 1 p) s -> (0 <= p x)%Z -> In n (s_nodes s) -> n_id n = x -> (n_ref n - 1 <> 0)%Z ->
  Inv p (upd_node x (nd_ref (n_ref n - 1)%Z) s).
Proof.
  intros H Hpx Hn Hx Hne. apply (Inv_upd _ _ _ _ _ n H); auto with cache.
  - apply (p_nonneg_of_padd x); auto. apply (Inv_p_nonneg _ _ H).
  - intros y ne. now rewrite padd_other.
  - intros _ (E & P & V & Z). rewrite Hx, padd_same in E.
    pose proof (hcount_nonneg x (s_handles s)). pose proof (rcount_nonneg n).
    repeat split; auto; cbn; rewrite ?Hx; [change (rcount (nd_ref (n_ref n - 1) n)) with (rcount n)|intros _ _]; lia.
Qed.

Lemma unref_internal_ok p s x :
  Inv (padd x 1 p) s -> (0 <= p x)%Z -> s_closed s = false -> Inv p (unref_internal x s).
Proof.
  intros H Hpx Hc. unfold unref_internal. destruct (find_id x (s_nodes s)) as [n|] eqn:F.
  - apply find_id_some in F. destruct F as [Hn Hx].
    destruct (Z.eqb_spec (n_ref n - 1) 0) as [e|ne].
    + rewrite e. apply unref_zero_ok; auto. lia.
    + apply dec_ok; auto.
  - apply find_id_none in F. pose proof (ri_pdom _ _ _ _ _ _ _ _ _ (inv_r _ _ H) x F) as E.
    rewrite padd_same in E. lia.
Qed.

(* finalisation in place (closed cache) *)
Lemma finalize_inplace q p s x n g fl :
  Inv q s -> s_closed s = true -> In n (s_nodes s) -> n_id n = x -> resident n = false ->
  pres g -> n_lru (g n) = n_lru n -> n_size (g n) = n_size n -> n_val (g n) = None -> n_dels (g n) = [] ->
  (forall y, 0 <= p y)%Z -> (forall y, y <> x -> p y = q y) ->
  (s_forced s = false -> n_ref (g n) = (hcount x (s_handles s) + p x)%Z /\ hcount x (s_handles s) = 0%Z) ->
  Inv p (set_log (fin_log n fl (s_log s)) (set_nodes (upd_id x g (s_nodes s)) s)).
Proof.
  intros [HS HR HL HP] Hc Hn Hx Hres Hg Hlru Hsz Hval Hdels Hp Hpq Href. unfold InvS, InvR, InvL in *.
  assert (resident (g n) = false) as Hres' by (unfold resident in *; now rewrite Hlru).
  split; unfold InvS, InvR, InvL; sred; auto.
  - eapply (SInv_upd _ _ _ _ x g n); [exact HS|exact Hn|exact Hx|exact Hg| | | ].
    + congruence.
    + unfold ucontrib. now rewrite Hres, Hres'.
    + congruence.
  - eapply (RInv_upd zq q p _ _ _ _ _ _ _ _ x g n); [exact HR|apply (si_ids _ _ _ _ HS)|exact Hn|exact Hx|exact Hg|exact Hp|exact Hpq| |congruence].
    intros Hfo _. destruct (Href Hfo) as [a b]. unfold node_ok, rcount. rewrite (proj1 (Hg n)), Hx, Hres', b.
    repeat split; [lia|intros [e|[e|e]]; congruence|lia|congruence].
  - apply (LInv_fin (s_nodes s) _ (s_log s) _ _ _ _ n fl); auto. apply (si_ids _ _ _ _ HS).
    + intros m Hm. destruct (in_upd_cases _ _ _ _ _ (si_ids _ _ _ _ HS) Hn Hx Hm) as [->|[Hm0 ne]].
      * right. rewrite (proj1 (Hg n)). auto.
      * left. split; auto. congruence.
    + intros m0 Hm0 ne. apply in_upd_other; auto. congruence.
Qed.

Lemma unref_external_ok p s x :
  Inv (padd x 1 p) s -> (0 <= p x)%Z ->
  (s_forced s = true -> forall n, In n (s_nodes s) -> n_id n = x -> (n_ref n <= 0)%Z) ->
  Inv p (unref_external x s).
Proof.
  intros H Hpx Hfo. destruct (s_closed s) eqn:Hc.
  2: { rewrite unref_ext_int_open by auto. now apply unref_internal_ok. }
  unfold unref_external. rewrite Hc. destruct (find_id x (s_nodes s)) as [n|] eqn:F.
  2: { apply find_id_none in F. pose proof (ri_pdom _ _ _ _ _ _ _ _ _ (inv_r _ _ H) x F) as E.
       rewrite padd_same in E. lia. }
  destruct (find_id_some _ _ _ F) as [Hn Hx].
  destruct (Z.eqb_spec (n_ref n - 1) 0) as [e|ne]; [|apply dec_ok; auto].
  destruct (s_forced s) eqn:Hf; [specialize (Hfo eq_refl n Hn Hx); lia|].
  destruct (last_ref _ _ _ _ H Hpx Hf Hn Hx ltac:(lia)) as (Hh0 & Hp0 & Hres).
  pose proof H as [HS HR HL HP]. unfold InvS, InvR, InvL in *.
  unfold call_finalizer. sred. rewrite find_id_upd by auto with cache.
  rewrite F, Hx, N.eqb_refl. cbv beta iota. unfold upd_node. sred. rewrite upd_upd by auto with cache.
  change (dels_ev (n_dels (nd_ref (n_ref n - 1) n)) (final_ev (n_val (nd_ref (n_ref n - 1) n)) false (s_log s)))
    with (fin_log n false (s_log s)).
  eapply (finalize_inplace (padd x 1 p) p s x n); eauto.
  - intro m. repeat split.
  - apply (p_nonneg_of_padd x); auto. apply (ri_p _ _ _ _ _ _ _ _ _ HR).
  - intros y ne. now rewrite padd_other.
  - intros _. cbn. split; lia.
Qed.

Definition padds (ev : list N) (p : N -> Z) : N -> Z :=
  fun y => (p y + Z.of_nat (count_occ N.eq_dec ev y))%Z.

Lemma padds_nil p y : padds [] p y = p y.
Proof. unfold padds. cbn. lia. Qed.

Lemma padds_cons x ev p y : padds (x :: ev) p y = padd x 1 (padds ev p) y.
Proof.
  unfold padds, padd. cbn [count_occ]. destruct (N.eq_dec x y) as [->|ne].
  - rewrite N.eqb_refl. lia.
  - assert (y <> x) as ne' by congruence. apply N.eqb_neq in ne'. rewrite ne'. lia.
Qed.

Lemma padds_cons' x ev p y : padds (x :: ev) p y = padds ev (padd x 1 p) y.
Proof.
  unfold padds, padd. cbn [count_occ]. destruct (N.eq_dec x y) as [->|ne].
  - rewrite N.eqb_refl. lia.
  - assert (y <> x) as ne' by congruence. apply N.eqb_neq in ne'. rewrite ne'. lia.
Qed.

Lemma padds_nonneg ev p : (forall y, 0 <= p y)%Z -> forall y, (0 <= padds ev p y)%Z.
Proof. intros H y. unfold padds. specialize (H y). lia. Qed.

Lemma nsum_zero g l : (forall n, In n l -> g n = 0%Z) -> nsum g l = 0%Z.
Proof.
  induction l as [|a l IH]; cbn; intro H; auto.
  rewrite (H a (or_introl eq_refl)), IH; [reflexivity|]. intros m Hm. apply H. now right.
Qed.

(* a linked node leaves the recency list (lru.Evict, lru.Ban, the eviction loop): its lru reference is
   still to be released, which the holder of the lru lock does after unlocking *)
Definition unlink (x : N) (n : node) (l : lrust) (s : state) : state :=
  set_used (s_used (order_remove x s) - Z.of_N (n_size n))%Z (upd_node x (nd_lru l) (order_remove x s)).

Lemma unlink_ok p s x n l :
  Inv p s -> In n (s_nodes s) -> n_id n = x -> resident n = true -> l <> LResident ->
  kept (padd x 1 p) s (unlink x n l s) /\ s_order (unlink x n l s) = remove_order x (s_order s).
Proof.
  intros H Hn Hx Hres Hl. pose proof (Inv_ids _ _ H) as Hnd.
  assert (in_order x (s_order s) = true) as Hin by (rewrite in_order_true, <- Hx; now apply (Inv_in_order _ _ _ H)).
  unfold kept, unlink, order_remove. rewrite Hin. unfold upd_node, CapOk, Ext. sred.
  split; [split; [|split; [repeat split|split; [lia|]]]|reflexivity].
  - pose proof H as [HS HR HL HP]. split; unfold InvS, InvR, InvL; sred; auto.
    + apply SInv_unlink; auto.
    + eapply (RInv_upd zq p (padd x 1 p) _ _ _ _ _ _ _ _ x _ n); eauto with cache.
      * apply padd_nonneg, (Inv_p_nonneg _ _ H).
      * intros y ne. now rewrite padd_other.
      * intros _ (E & P & V & Z). unfold node_ok, rcount in *. rewrite Hres in E.
        assert (resident (nd_lru l n) = false) as -> by (destruct l; auto; congruence).
        cbn. rewrite Hx, padd_same in *. repeat split; auto. lia.
      * intros _. unfold scontrib. cbn. lia.
    + apply LInv_upd_same; auto with cache.
  - apply (lru_upd_ext x l s n); auto.
    + rewrite <- Hx. now apply find_id_in.
    + rewrite (resident_lru _ Hres). discriminate.
Qed.

Lemma evict_one_ok p s x n ord' :
  Inv p s -> s_order s = x :: ord' -> find_id x (s_nodes s) = Some n ->
  Inv (padd x 1 p) (evict_one x n ord' s) /\ Ext s (evict_one x n ord' s).
Proof.
  intros H Ho F. destruct (find_id_some _ _ _ F) as [Hn Hx].
  assert (resident n = true) as Hres by (apply (Inv_in_order _ _ _ H Hn); rewrite Hx, Ho; now left).
  destruct (unlink_ok p s x n LAbsent H Hn Hx Hres) as ((A & _ & _ & X) & _); [discriminate|].
  assert (evict_one x n ord' s = unlink x n LAbsent s) as ->; [|auto].
  unfold unlink, order_remove. rewrite (proj2 (in_order_true x (s_order s))), Ho, remove_order_head; [reflexivity| |].
  - rewrite <- Ho. apply (si_ord_nd _ _ _ _ (inv_s _ _ H)).
  - rewrite Ho. now left.
Qed.

Lemma used_zero_of_empty_order p s : Inv p s -> s_order s = [] -> s_used s = 0%Z.
Proof.
  intros H Ho. pose proof (inv_s _ _ H) as HS. unfold InvS in HS.
  rewrite (si_used _ _ _ _ HS). apply nsum_zero. intros n Hn. unfold ucontrib.
  destruct (resident n) eqn:R; auto. exfalso.
  assert (In (n_id n) (s_order s)) as Hin by (apply (si_ord _ _ _ _ HS); eauto). rewrite Ho in Hin. destruct Hin.
Qed.

Lemma evict_stop p s :
  Inv p s -> (Z.of_N (s_cap s) <? s_used s)%Z = false ->
  Inv (padds [] p) s /\ CapOk s /\ same_misc s s /\ Ext s s.
Proof.
  intros H C. split; [eapply Inv_pext; [|exact H]; intro y; now rewrite padds_nil|].
  split; [unfold CapOk; apply Z.ltb_ge in C; lia|]. split; [apply same_misc_refl|apply ExtN_refl].
Qed.

Lemma evict_loop_ok ord : forall p s s' ev,
  Inv p s -> s_order s = ord -> evict_loop ord s = (s', ev) ->
  Inv (padds ev p) s' /\ CapOk s' /\ same_misc s s' /\ Ext s s'.
Proof.
  induction ord as [|x ord' IH]; intros p s s' ev H Ho E; cbn [evict_loop] in E;
    destruct (Z.of_N (s_cap s) <? s_used s)%Z eqn:C; try (injection E as <- <-; now apply evict_stop).
  - exfalso. rewrite (used_zero_of_empty_order _ _ H Ho) in C. apply Z.ltb_lt in C. lia.
  - destruct (find_id x (s_nodes s)) as [n|] eqn:F.
    + destruct (evict_loop ord' (evict_one x n ord' s)) as [s1 ev1] eqn:E1. injection E as <- <-.
      destruct (evict_one_ok p s x n ord' H Ho F) as [H1 X1].
      destruct (IH _ _ _ _ H1 eq_refl E1) as (A & B & D & X).
      split; [eapply Inv_pext; [|exact A]; intro y; now rewrite padds_cons'|]. split; [exact B|].
      split; [eapply same_misc_trans; [|exact D]; repeat split|eapply Ext_trans; eauto].
    + exfalso. apply find_id_none in F.
      destruct (proj1 (si_ord _ _ _ _ (inv_s _ _ H) x)) as (m & Hm & Hmx & _); [rewrite Ho; now left|].
      apply F. rewrite <- Hmx. now apply in_ids.
Qed.

Lemma release_all_ok ev : forall p s,
  Inv (padds ev p) s -> (forall y, 0 <= p y)%Z -> s_forced s = false -> Inv p (release_all ev s).
Proof.
  unfold release_all. induction ev as [|x ev IH]; intros p s H Hp Hf; cbn [fold_left].
  - eapply Inv_pext; [|exact H]. intro y. now rewrite padds_nil.
  - apply IH; auto.
    + apply unref_external_ok.
      * eapply Inv_pext; [|exact H]. intro y. now rewrite padds_cons.
      * now apply padds_nonneg.
      * intro; congruence.
    + destruct (unref_external_same x s) as (_ & _ & _ & _ & e & _). congruence.
Qed.

(* the eviction loop followed, outside the lock, by the release of the evicted nodes *)
Lemma evict_release_ok p s s1 ev :
  Inv p s -> s_forced s = false -> run_evict_loop s = (s1, ev) ->
  Inv p (release_all ev s1) /\ CapOk (release_all ev s1) /\ same_misc s (release_all ev s1) /\
  Ext s (release_all ev s1).
Proof.
  intros H Hf E. destruct (evict_loop_ok _ _ _ _ _ H eq_refl E) as (A & B & D & X).
  pose proof (release_all_same ev s1) as R. split; [|split; [|split]].
  - apply release_all_ok; auto; [apply (Inv_p_nonneg _ _ H)|]. destruct D as (_ & _ & e & _). congruence.
  - eapply same_lru_capok; eauto.
  - eapply same_misc_trans; [exact D|]. now apply same_lru_misc.
  - eapply Ext_trans; [exact X|apply release_all_ext].
Qed.

Lemma capok_setcap_irrelevant s s' : same_lru s s' -> CapOk s -> CapOk s'.
Proof. apply same_lru_capok. Qed.

(* lru.SetCapacity on a cache that was not force-closed *)
Lemma lru_set_capacity_ok p s c :
  Inv p s -> s_forced s = false ->
  Inv p (lru_set_capacity c s) /\ CapOk (lru_set_capacity c s) /\
  same_misc (set_cap c s) (lru_set_capacity c s) /\ Ext s (lru_set_capacity c s).
Proof.
  intros H Hf. unfold lru_set_capacity. destruct (run_evict_loop (set_cap c s)) as [s1 ev] eqn:E.
  apply (evict_release_ok p (set_cap c s)); auto. destruct H; split; auto.
Qed.

(* lru.Promote, called by Get with its own reference on the node *)
Definition promote_link (x : N) (n : node) (s : state) : state :=
  let s1 := upd_node x (fun n0 => nd_lru LResident (nd_ref (n_ref n0 + 1)%Z n0)) s in
  set_used (s_used s1 + Z.of_N (n_size n))%Z (set_order (s_order s1 ++ [x]) s1).

Lemma promote_link_ok p s x n :
  Inv p s -> s_closed s = false -> In n (s_nodes s) -> n_id n = x -> n_val n <> None -> n_lru n = LAbsent ->
  Inv p (promote_link x n s) /\ Ext s (promote_link x n s).
Proof.
  intros H Hc Hn Hx Hv L. pose proof (forced_false_of_open _ _ H Hc) as Hfo.
  pose proof (Inv_ids _ _ H) as Hnd. pose proof (Inv_p_nonneg _ _ H x) as Hpx.
  assert (resident n = false) as Hres by (unfold resident; now rewrite L).
  set (f := fun n0 : node => nd_lru LResident (nd_ref (n_ref n0 + 1)%Z n0)).
  assert (pres f) as Hpf by (intro m; repeat split).
  unfold promote_link, Ext, upd_node. fold f. sred. split.
  - pose proof H as [HS HR HL HP]. split; unfold InvS, InvR, InvL; sred; auto.
    + apply (SInv_link _ _ _ _ x f n); auto.
    + eapply (RInv_upd zq p p _ _ _ _ _ _ _ _ x f n); eauto.
      * apply (Inv_p_nonneg _ _ H).
      * intros _ (E & P & V & Z). pose proof (hcount_nonneg (n_id n) (s_handles s)).
        unfold node_ok, rcount in *. rewrite Hres in E. subst f. cbn. rewrite Hx in *. repeat split; auto; lia.
      * intros _. unfold scontrib. subst f. cbn. lia.
    + apply LInv_upd_same; auto.
  - apply ExtN_upd; auto. intros m Hm Hmx. rewrite (same_id_eq _ m n Hnd Hm Hn) by congruence.
    split; [rewrite L; discriminate|auto].
Qed.

(* lru.Promote of a linked node: it moves to the most recent end *)
Lemma touch_ok p s x n :
  Inv p s -> In n (s_nodes s) -> n_id n = x -> n_lru n = LResident ->
  Inv p (set_order (remove_order x (s_order s) ++ [x]) (order_remove x s)).
Proof.
  intros H Hn Hx L.
  assert (In x (s_order s)) as Hin by (rewrite <- Hx; apply (Inv_in_order _ _ _ H Hn); unfold resident; now rewrite L).
  unfold order_remove. rewrite (proj2 (in_order_true x (s_order s)) Hin).
  destruct H as [HS HR HL HP]. split; unfold InvS, InvR, InvL; sred; auto. now apply SInv_touch.
Qed.

Lemma lru_promote_ok p s x n :
  Inv p s -> s_closed s = false -> In n (s_nodes s) -> n_id n = x -> (1 <= p x)%Z -> n_val n <> None ->
  kept p s (lru_promote x s).
Proof.
  intros H Hc Hn Hx Hpx Hv. pose proof (forced_false_of_open _ _ H Hc) as Hfo.
  pose proof (kept_refl p s H) as Same.
  unfold lru_promote. rewrite <- Hx, (Inv_find_id _ _ _ H Hn), Hx.
  destruct (n_lru n) eqn:L; [|split; [eapply touch_ok; eauto|]|exact Same].
  - destruct (n_size n <=? s_cap s); [|exact Same].
    destruct (Inv_node _ _ _ H Hfo Hn) as (E & _). rewrite Hx in E.
    pose proof (hcount_nonneg x (s_handles s)). pose proof (rcount_nonneg n).
    assert (n_ref n + 1 <=? 1 = false)%Z as -> by (apply Z.leb_gt; lia).
    change (upd_node x _ s) with (upd_node x (fun n0 => nd_lru LResident (nd_ref (n_ref n0 + 1)%Z n0)) s).
    change (set_used _ _) with (promote_link x n s).
    destruct (promote_link_ok p s x n H Hc Hn Hx Hv L) as [H2 X2].
    destruct (run_evict_loop (promote_link x n s)) as [s3 ev] eqn:E3.
    destruct (evict_release_ok p _ _ _ H2 Hfo E3) as (A & B & C & D).
    split; [exact A|split; [|split; [auto|eapply Ext_trans; eauto]]].
    eapply same_misc_trans; [|exact C]. unfold promote_link, upd_node. repeat split.
  - unfold order_remove. destruct (in_order x (s_order s)); unfold CapOk, Ext; sred;
      (split; [repeat split|split; [auto|apply ExtN_refl]]).
Qed.

(* Node.unRefExternal (Handle.Release, also of the lru's own handles).  On a force-closed cache Close(true) has
   reset the count to 0 and a later decrement takes it to -1: the node is never finalised again, which the third
   hypothesis lets the proof see *)
Lemma unref_external_kept p s x :
  Inv (padd x 1 p) s -> (0 <= p x)%Z ->
  (s_forced s = true -> forall n, In n (s_nodes s) -> n_id n = x -> (n_ref n <= 0)%Z) ->
  kept p s (unref_external x s).
Proof.
  intros H Hp Hfo. pose proof (unref_external_same x s) as R.
  split; [now apply unref_external_ok|].
  split; [now apply same_lru_misc|split; [now apply same_lru_capok|apply unref_external_ext]].
Qed.

Lemma ban_absent_ok p s x n :
  Inv p s -> In n (s_nodes s) -> n_id n = x -> n_lru n = LAbsent ->
  Inv p (upd_node x (nd_lru LBanned) s) /\ Ext s (upd_node x (nd_lru LBanned) s).
Proof.
  intros H Hn Hx L. split.
  - assert (resident (nd_lru LBanned n) = resident n) as Hr by (unfold resident; cbn; now rewrite L).
    apply (Inv_upd p p s x _ n); auto with cache; [apply (Inv_p_nonneg _ _ H)|].
    intros _ N. unfold node_ok, rcount in *. rewrite Hr. exact N.
  - unfold Ext, upd_node. sred. apply ExtN_upd; [auto with cache|]. intros m _ _. split; auto.
Qed.

Lemma unlink_release_ok p s x n l :
  Inv p s -> In n (s_nodes s) -> n_id n = x -> n_lru n = LResident -> l <> LResident ->
  (s_forced s = true -> forall m, In m (s_nodes s) -> n_id m = x -> (n_ref m <= 0)%Z) ->
  let s' := unref_external x (unlink x n l s) in
  kept p s s' /\ s_order s' = remove_order x (s_order s).
Proof.
  intros H Hn Hx L Hl Hforced s'. assert (resident n = true) as Hres by (unfold resident; now rewrite L).
  destruct (unlink_ok p s x n l H Hn Hx Hres Hl) as (K & O). pose proof K as (A & B & _).
  pose proof (unref_external_same x (unlink x n l s)) as R. fold s' in R. split.
  - eapply kept_trans; [exact K|]. apply unref_external_kept; auto; [apply (Inv_p_nonneg _ _ H)|].
    destruct B as (_ & _ & e & _). rewrite e. intros Hfo m Hm Hmx.
    unfold unlink, order_remove in Hm. destruct (in_order x (s_order s)); unfold upd_node in Hm; sred;
      (destruct (in_upd_cases _ _ _ _ _ (Inv_ids _ _ H) Hn Hx Hm) as [->|[Hm0 _]]; [apply (Hforced Hfo n Hn Hx)|apply (Hforced Hfo m Hm0 Hmx)]).
  - destruct R as (_ & _ & e & _). now rewrite e.
Qed.

Lemma lru_ban_ok p s x n :
  Inv p s -> s_closed s = false -> In n (s_nodes s) -> n_id n = x -> kept p s (lru_ban x s).
Proof.
  intros H Hc Hn Hx. pose proof (forced_false_of_open _ _ H Hc) as Hfo.
  unfold lru_ban. rewrite <- Hx, (Inv_find_id _ _ _ H Hn), Hx.
  destruct (n_lru n) eqn:L; [|apply (unlink_release_ok p s x n LBanned H Hn Hx L); [discriminate|congruence]|now apply kept_refl].
  destruct (ban_absent_ok p s x n H Hn Hx L) as [A X]. split; [exact A|split; [repeat split|auto]].
Qed.

Lemma lru_evict_ok p s x :
  Inv p s -> (s_forced s = true -> forall n, In n (s_nodes s) -> n_id n = x -> (n_ref n <= 0)%Z) ->
  kept p s (lru_evict x s) /\ s_order (lru_evict x s) = remove_order x (s_order s).
Proof.
  intros H Hforced.
  assert (~ In x (s_order s) -> kept p s s /\ s_order s = remove_order x (s_order s)) as Same.
  { intro Hnot. split; [now apply kept_refl|]. symmetry. unfold remove_order. apply ListLemmas.filter_all.
    intros y Hy. apply negb_true_iff, N.eqb_neq. intro; subst; tauto. }
  unfold lru_evict. destruct (find_id x (s_nodes s)) as [n|] eqn:F.
  - destruct (find_id_some _ _ _ F) as [Hn Hx].
    destruct (n_lru n) eqn:L; [apply Same| |apply Same];
      try (rewrite <- Hx, (Inv_in_order _ _ _ H Hn); unfold resident; rewrite L; discriminate).
    apply (unlink_release_ok p s x n LAbsent); auto. discriminate.
  - apply Same. intro Hin. apply (si_ord _ _ _ _ (inv_s _ _ H)) in Hin. destruct Hin as (m & Hm & Hmx & _).
    apply find_id_none in F. apply F. rewrite <- Hmx. now apply in_ids.
Qed.

Lemma bucket_get_ok p s ns key go s' r :
  Inv p s -> s_closed s = false -> bucket_get ns key go s = (s', r) ->
  match r with
  | Some x => kept (padd x 1 p) s s' /\ exists n, In n (s_nodes s') /\ n_id n = x /\ n_ns n = ns /\ n_key n = key
  | None => s' = s
  end.
Proof.
  intros H Hc E. unfold bucket_get in E. destruct (find_key ns key (s_nodes s)) as [n|] eqn:F.
  - destruct (find_key_some _ _ _ _ F) as (Hn & Hns & Hkey). injection E as <- <-. split.
    + split; [|split; [repeat split|split; [auto|apply ref_upd_ext]]].
      apply (Inv_upd _ _ _ _ _ n H); auto with cache.
      * apply padd_nonneg, (Inv_p_nonneg _ _ H).
      * intros y ne. now rewrite padd_other.
      * intros _ (E & P & V & Z). pose proof (hcount_nonneg (n_id n) (s_handles s)). pose proof (rcount_nonneg n).
        pose proof (Inv_p_nonneg _ _ H (n_id n)).
        repeat split; auto; cbn; [change (rcount (nd_ref (n_ref n + 1) n)) with (rcount n); rewrite padd_same|intros _ _]; lia.
    + exists (nd_ref (n_ref n + 1) n). split; [|repeat split; cbn; auto].
      unfold upd_node. sred. apply in_upd_same; auto.
  - destruct go; injection E as <- <-; [reflexivity|].
    pose proof H as [HS HR HL HP]. unfold InvS, InvR, InvL in *. split.
    + split; [|split; [repeat split|split; [auto|unfold Ext; sred; apply ExtN_insert]]].
      split; unfold InvS, InvR, InvL; sred; auto.
      * apply SInv_insert; auto.
      * rewrite Hc in *. apply RInv_insert; auto. apply (si_fresh _ _ _ _ HS).
      * apply LInv_neutral; [|exact I]. apply LInv_insert; auto. apply (si_fresh _ _ _ _ HS).
    + eexists. split; [sred; apply in_insert; left; reflexivity|]. repeat split.
Qed.

(* setFunc has returned for node x, which had no value: all of the invariant but its log part *)
Lemma setval_ok p s x n v sz :
  Inv p s -> s_closed s = false -> In n (s_nodes s) -> n_id n = x -> n_val n = None -> (v = None -> sz = 0) ->
  let nodes' := upd_id x (nd_val v sz) (s_nodes s) in
  SInv nodes' (s_order s) (s_used s) (s_next_nid s) /\
  RInv zq p nodes' (s_handles s) (s_closed s) (s_forced s) (s_next_hid s) (s_stat_nodes s)
       (s_stat_size s + Z.of_N sz) /\
  ExtN (s_nodes s) (s_next_nid s) (s_closed s) nodes' (s_next_nid s) (s_closed s).
Proof.
  intros H Hc Hn Hx Hv Hsz. pose proof (forced_false_of_open _ _ H Hc) as Hfo. pose proof (Inv_ids _ _ H) as Hnd.
  destruct (Inv_node _ _ _ H Hfo Hn) as (E & P & V & Z).
  pose proof H as [HS HR HL HP]. unfold InvS, InvR in *.
  assert (resident n = false) as Hres.
  { destruct (resident n) eqn:R; auto. exfalso. apply (si_resval _ _ _ _ HS n Hn R Hv). }
  cbv zeta. split; [|split].
  - eapply (SInv_upd _ _ _ _ x _ n); eauto with cache; try reflexivity.
    + unfold ucontrib. change (resident (nd_val v sz n)) with (resident n). now rewrite Hres.
    + congruence.
  - eapply (RInv_upd zq p p _ _ _ _ _ _ _ _ x _ n); eauto with cache.
    + apply (Inv_p_nonneg _ _ H).
    + intros _ _. split; [exact E|split; [intros _; apply P; auto|split; [intro Hh; elim (V Hh Hv)|intros _; exact Hsz]]].
    + intros _. unfold scontrib. cbn. rewrite (Z Hc Hv). lia.
  - apply ExtN_upd; [auto with cache|].
    intros m Hm Hmx. rewrite (same_id_eq _ m n Hnd Hm Hn) by congruence.
    split; [auto|intro Hq; congruence].
Qed.

Lemma construct_ok p s x n sz :
  Inv p s -> s_closed s = false -> In n (s_nodes s) -> n_id n = x -> n_val n = None ->
  let s' := set_stats (s_stat_nodes s) (s_stat_size s + Z.of_N sz)%Z
              (emit (EvConstruct x (s_next_vid s) sz)
                 (set_next_vid (s_next_vid s + 1) (upd_node x (nd_val (Some (s_next_vid s)) sz) s))) in
  Inv p s' /\ Ext s s'.
Proof.
  intros H Hc Hn Hx Hv.
  destruct (setval_ok p s x n (Some (s_next_vid s)) sz H Hc Hn Hx Hv) as (A & B & C); [discriminate|].
  pose proof H as [HS HR HL HP]. unfold InvL in HL. cbv zeta. split; [|exact C].
  split; unfold InvS, InvR, InvL; unfold upd_node; sred; auto.
  rewrite Hc in *. apply LInv_construct with (n := n); auto; [apply (Inv_ids _ _ H)|].
  rewrite <- Hx. apply (si_fresh _ _ _ _ HS n Hn).
Qed.

Lemma setnil_ok p s x n :
  Inv p s -> s_closed s = false -> In n (s_nodes s) -> n_id n = x -> n_val n = None ->
  let s' := emit (EvSetNil x) (upd_node x (nd_val None 0) s) in
  Inv p s' /\ Ext s s'.
Proof.
  intros H Hc Hn Hx Hv.
  destruct (setval_ok p s x n None 0 H Hc Hn Hx Hv) as (A & B & C); [reflexivity|].
  rewrite Z.add_0_r in B. pose proof H as [HS HR HL HP]. unfold InvL in HL. cbv zeta. split; [|exact C].
  split; unfold InvS, InvR, InvL; unfold upd_node; sred; auto.
  apply LInv_neutral; [|exact I]. apply LInv_upd_same; auto with cache.
  intros m Hm Hmx. rewrite (same_id_eq _ m n (Inv_ids _ _ H) Hm Hn) by congruence.
  cbn. split; [congruence|]. split; [reflexivity|]. intro Hq. congruence.
Qed.

(* between operations: on a closed cache nothing is linked, and after Close(true) every node is dead (count <= 0,
   no value, no delFunc) *)
Definition ClosedRest (s : state) : Prop :=
  s_closed s = true ->
  s_order s = [] /\
  (s_forced s = true -> forall n, In n (s_nodes s) -> (n_ref n <= 0)%Z /\ n_val n = None /\ n_dels n = []).

Definition Rest (s : state) : Prop := Inv p0 s /\ CapOk s /\ ClosedRest s.

Lemma closedrest_open s : s_closed s = false -> ClosedRest s.
Proof. intros H H'. congruence. Qed.

Lemma rest_open s : Inv p0 s -> CapOk s -> s_closed s = false -> Rest s.
Proof. intros H C O. split; [exact H|split; [exact C|now apply closedrest_open]]. Qed.

(* an operation has taken the open cache from s to s' *)
Definition opened (p : N -> Z) (s s' : state) : Prop :=
  Inv p s' /\ CapOk s' /\ s_closed s' = false /\ Ext s s' /\ s_next_did s' = s_next_did s.

Lemma opened_trans p q a b c : opened p a b -> opened q b c -> opened q a c.
Proof.
  intros (_ & _ & _ & X & D) (H & C & O & X' & D').
  split; [exact H|split; [exact C|split; [exact O|split; [eapply Ext_trans; eauto|congruence]]]].
Qed.

Lemma opened_rest p s s1 s' :
  opened p s s1 -> opened p0 s1 s' -> Rest s' /\ Ext s s' /\ s_next_did s' = s_next_did s.
Proof.
  intros O1 O2. destruct (opened_trans _ _ _ _ _ O1 O2) as (H & C & O & X & D). split; [now apply rest_open|auto].
Qed.

Lemma kept_open p s s' : kept p s s' -> CapOk s -> s_closed s = false -> opened p s s'.
Proof.
  intros (H & (_ & c & _ & _ & _ & _ & d & _) & C & X) Hcap Hc.
  split; [exact H|split; [auto|split; [congruence|split; [exact X|exact d]]]].
Qed.

Lemma kept_rest s s' :
  kept p0 s s' -> CapOk s -> s_closed s = false -> Rest s' /\ Ext s s'.
Proof. intros K Hcap Hc. destruct (kept_open _ _ _ K Hcap Hc) as (A & B & C & D & _). split; [now apply rest_open|exact D]. Qed.

(* on the open cache an operation gives back its own reference to x *)
Lemma unref_internal_kept p s x :
  Inv (padd x 1 p) s -> (0 <= p x)%Z -> s_closed s = false -> kept p s (unref_internal x s).
Proof.
  intros H Hp Hc. rewrite <- unref_ext_int_open by exact Hc. apply unref_external_kept; auto.
  intro Hf. rewrite (forced_false_of_open _ _ H Hc) in Hf. discriminate.
Qed.

Lemma node_of_pend p s x : Inv p s -> (0 < p x)%Z -> exists n, In n (s_nodes s) /\ n_id n = x.
Proof.
  intros H Hp. destruct (in_dec N.eq_dec x (ids (s_nodes s))) as [Hin|Hnin].
  - unfold ids in Hin. apply in_map_iff in Hin. destruct Hin as (n & e & Hn). eauto.
  - pose proof (ri_pdom _ _ _ _ _ _ _ _ _ (inv_r _ _ H) x Hnin). lia.
Qed.

Lemma get_finish_ok s x n :
  Inv (padd x 1 p0) s -> CapOk s -> s_closed s = false -> In n (s_nodes s) -> n_id n = x -> n_val n <> None ->
  opened p0 s (fst (get_finish x s)).
Proof.
  intros H Hcap Hc Hn Hx Hv. unfold get_finish.
  set (s1 := if s_cacher s then lru_promote x s else s).
  assert (kept (padd x 1 p0) s s1) as K1.
  { subst s1. apply (kept_cacher _ s (lru_promote x)); auto. apply (lru_promote_ok _ s x n); auto.
    rewrite padd_same. unfold p0. lia. }
  destruct (kept_open _ _ _ K1 Hcap Hc) as (H1 & Hcap1 & Hc1 & E1 & D1).
  destruct K1 as (_ & (m1 & m2 & m3 & m4 & m5 & m6 & m7 & m8) & _).
  destruct (node_of_pend _ _ x H1) as (n1 & Hn1 & Hx1). { rewrite padd_same. unfold p0. lia. }
  rewrite <- Hx1, (Inv_find_id _ _ _ H1 Hn1), Hx1.
  assert (n_val n1 <> None) as Hv1.
  { destruct E1 as (_ & _ & E1). destruct (E1 n1 Hn1) as (m & Hm & i & _ & _ & v).
    - rewrite Hx1, <- Hx. apply (si_fresh _ _ _ _ (inv_s _ _ H) n Hn).
    - rewrite (Inv_same_id _ _ _ _ H Hm Hn) in v by congruence.
      destruct (v Hv) as [e|e]; congruence. }
  destruct (n_val n1) as [v|] eqn:V; [|congruence]. cbn [fst].
  pose proof H1 as [HS1 HR1 HL1 HP1]. unfold InvS, InvR, InvL in *.
  split; [|split; [|split; [|split]]].
  - split; unfold InvS, InvR, InvL; sred; auto.
    eapply RInv_pext; [|eapply (RInv_hadd _ _ _ _ _ _ _ _ _ x n1); eauto].
    + intro y. unfold padd, p0. destruct (y =? x); lia.
    + rewrite padd_same. unfold p0. lia.
    + intros _. congruence.
    + apply (Inv_ids _ _ H1).
  - unfold CapOk in *. sred. exact Hcap1.
  - sred. congruence.
  - unfold Ext in *. sred. exact E1.
  - sred. exact D1.
Qed.

Lemma capok_same s s' : s_used s' = s_used s -> s_cap s' = s_cap s -> CapOk s -> CapOk s'.
Proof. unfold CapOk. intros -> ->. auto. Qed.

Lemma cache_get_ok s ns key sf :
  Rest s -> Rest (fst (cache_get ns key sf s)) /\ Ext s (fst (cache_get ns key sf s)) /\
            s_next_did (fst (cache_get ns key sf s)) = s_next_did s.
Proof.
  intros (H & Hcap & Hcr). unfold cache_get. destruct (s_closed s) eqn:Hc.
  { cbn. split; [split; auto|]. split; [apply ExtN_refl|reflexivity]. }
  destruct (bucket_get ns key match sf with SfNil => true | SfRet _ _ => false end s) as [s1 r] eqn:B.
  pose proof (bucket_get_ok p0 s _ _ _ _ _ H Hc B) as R. destruct r as [x|].
  2: { subst s1. cbn. split; [split; auto|]. split; [apply ExtN_refl|reflexivity]. }
  destruct R as (K1 & n & Hn & Hx & Hns & Hkey).
  pose proof (kept_open _ _ _ K1 Hcap Hc) as O1. pose proof O1 as (H1 & Hcap1 & Hc1 & _).
  rewrite <- Hx, (Inv_find_id _ _ _ H1 Hn), Hx.
  apply (opened_rest _ _ _ _ O1).
  destruct (n_val n) as [v|] eqn:V.
  - apply (get_finish_ok s1 x n); auto. congruence.
  - destruct sf as [|sz [|]]; cbn [fst].
    + apply kept_open; auto. apply unref_internal_kept; auto. unfold p0; lia.
    + destruct (construct_ok _ s1 x n sz H1 Hc1 Hn Hx V) as (A & A').
      match goal with |- context [get_finish x ?z] => set (s2 := z) in * end.
      apply (opened_trans (padd x 1 p0) p0 s1 s2).
      * split; [exact A|split; [exact Hcap1|split; [exact Hc1|split; [exact A'|reflexivity]]]].
      * apply (get_finish_ok s2 x (nd_val (Some (s_next_vid s1)) sz n)); auto; try assumption.
        -- subst s2. unfold upd_node. sred. apply in_upd_same; auto.
        -- cbn. discriminate.
    + destruct (setnil_ok _ s1 x n H1 Hc1 Hn Hx V) as (A & A').
      match goal with |- context [unref_internal x ?z] => set (s2 := z) in * end.
      apply (opened_trans (padd x 1 p0) p0 s1 s2).
      * split; [exact A|split; [exact Hcap1|split; [exact Hc1|split; [exact A'|reflexivity]]]].
      * apply kept_open; [|exact Hcap1|exact Hc1]. apply unref_internal_kept; [exact A|unfold p0; lia|exact Hc1].
Qed.

(* steps that only drop references / finalise: reference counts do not grow, an absent value stays
   absent, an empty delFunc list stays empty *)
Definition DecN (l l' : list node) : Prop :=
  forall m', In m' l' -> exists m, In m l /\ n_id m = n_id m' /\ (n_ref m' <= n_ref m)%Z /\
     (n_val m = None -> n_val m' = None) /\ (n_dels m = [] -> n_dels m' = []).
Definition Dec (s s' : state) : Prop := DecN (s_nodes s) (s_nodes s').

Lemma DecN_refl l : DecN l l.
Proof. intros m Hm. exists m. repeat split; auto. lia. Qed.
Lemma DecN_trans a b c : DecN a b -> DecN b c -> DecN a c.
Proof.
  intros A B m'' Hm''. destruct (B m'' Hm'') as (m' & Hm' & i' & r' & v' & d').
  destruct (A m' Hm') as (m & Hm & i & r & v & d). exists m. repeat split; auto; try congruence. lia.
Qed.
Lemma DecN_upd l x f : pres f ->
  (forall m, (n_ref (f m) <= n_ref m)%Z /\ (n_val m = None -> n_val (f m) = None) /\ (n_dels m = [] -> n_dels (f m) = [])) ->
  DecN l (upd_id x f l).
Proof.
  intros Hf H m' Hm'. apply in_upd in Hm'. destruct Hm' as (m & Hm & ->). exists m. split; auto.
  destruct (n_id m =? x); [|repeat split; auto; lia]. destruct (Hf m) as (i & _). destruct (H m) as (a & b & c). auto.
Qed.
Lemma DecN_remove l x : DecN l (remove_id x l).
Proof. intros m' Hm'. apply in_remove in Hm'. exists m'. repeat split; try tauto. lia. Qed.

Lemma cache_delete_dec ns key s : Dec s (cache_delete ns key s).
Proof.
  unfold cache_delete, Dec. destruct (find_key ns key (s_nodes s)); [|apply DecN_refl].
  destruct (n_ref n =? 0)%Z; [|apply DecN_refl]. sred. apply DecN_remove.
Qed.
Lemma call_finalizer_dec f x s : Dec s (call_finalizer f x s).
Proof.
  unfold call_finalizer, Dec. destruct (find_id x (s_nodes s)); [|apply DecN_refl].
  unfold upd_node. sred. apply DecN_upd; [intro m; repeat split|]. intro m. cbn. repeat split; auto. lia.
Qed.
Lemma ref_dec_dec x s n :
  NoDup (ids (s_nodes s)) -> find_id x (s_nodes s) = Some n -> Dec s (upd_node x (nd_ref (n_ref n - 1)) s).
Proof.
  intros Hnd F. destruct (find_id_some _ _ _ F) as [Hn Hx].
  unfold Dec, upd_node. sred. intros m' Hm'. apply in_upd in Hm'. destruct Hm' as (m & Hm & ->). exists m. split; auto.
  destruct (N.eqb_spec (n_id m) x) as [e|ne]; [|repeat split; auto; lia].
  assert (m = n) as -> by (eapply same_id_eq; eauto; congruence). cbn. repeat split; auto. lia.
Qed.

Lemma unref_external_dec x s : NoDup (ids (s_nodes s)) -> Dec s (unref_external x s).
Proof.
  intro Hnd. unfold unref_external. destruct (find_id x (s_nodes s)) as [n|] eqn:F; [|apply DecN_refl].
  pose proof (ref_dec_dec x s n Hnd F) as A.
  destruct (n_ref n - 1 =? 0)%Z; [|exact A]. destruct (s_closed s).
  - eapply DecN_trans; [exact A|apply call_finalizer_dec].
  - eapply DecN_trans; [exact A|apply cache_delete_dec].
Qed.

Lemma lru_evict_dec x s : NoDup (ids (s_nodes s)) -> Dec s (lru_evict x s).
Proof.
  intro Hnd. unfold lru_evict. destruct (find_id x (s_nodes s)) as [n|] eqn:F; [|apply DecN_refl].
  destruct (n_lru n); try apply DecN_refl.
  eapply DecN_trans; [|apply unref_external_dec].
  - unfold Dec, order_remove. destruct (in_order x (s_order s)); unfold upd_node; sred;
      (apply DecN_upd; [auto with cache|]; intro m; cbn; repeat split; auto; lia).
  - unfold order_remove. destruct (in_order x (s_order s)); unfold upd_node; sred; rewrite ids_upd; auto with cache.
Qed.

(* the property of force-closed states that Release and SetCapacity must keep *)
Definition all_dead (l : list node) : Prop :=
  forall n, In n l -> (n_ref n <= 0)%Z /\ n_val n = None /\ n_dels n = [].

Lemma all_dead_dec l l' : DecN l l' -> all_dead l -> all_dead l'.
Proof.
  intros D A m' Hm'. destruct (D m' Hm') as (m & Hm & _ & r & v & d). destruct (A m Hm) as (a & b & c).
  repeat split; auto. lia.
Qed.

Lemma handle_release_ok s h :
  Rest s -> Rest (handle_release h s) /\ Ext s (handle_release h s) /\
            s_next_did (handle_release h s) = s_next_did s.
Proof.
  intros (H & Hcap & Hcr). unfold handle_release.
  destruct (find (fun p => fst p =? h) (s_handles s)) as [[h' x]|] eqn:F.
  2: { split; [split; auto|]. split; [apply ExtN_refl|reflexivity]. }
  destruct (find_handle_some _ _ _ F) as [Hin Hh]. cbn in Hh. subst h'. cbn [snd].
  set (s0 := set_handles _ s).
  pose proof H as [HS HR HL HP]. unfold InvS, InvR, InvL in *.
  assert (Inv (padd x 1 p0) s0) as H0.
  { subst s0. split; unfold InvS, InvR, InvL; sred; auto. apply (RInv_hdel _ _ _ _ _ _ _ _ _ h x HR Hin). }
  assert (s_forced s0 = true -> forall n, In n (s_nodes s0) -> n_id n = x -> (n_ref n <= 0)%Z) as Hfo.
  { subst s0. sred. intros Hf n Hn _. assert (s_closed s = true) as Hc by (apply (ri_fc _ _ _ _ _ _ _ _ _ HR Hf)).
    destruct (Hcr Hc) as (_ & D). apply (D Hf n Hn). }
  pose proof (unref_external_ok p0 s0 x H0 ltac:(unfold p0; lia) Hfo) as H1.
  destruct (unref_external_same x s0) as (a1 & a2 & a3 & a4 & a5 & a6 & a7 & a8 & a9 & a10 & a11).
  split; [split; [exact H1|split]|split].
  - eapply capok_same; [exact a2|exact a1|]. subst s0. unfold CapOk in *. sred. exact Hcap.
  - intro Hc. rewrite a4 in Hc. subst s0. sred. destruct (Hcr Hc) as (O & D). split; [congruence|].
    intros Hf. rewrite a5 in Hf. sred. eapply all_dead_dec; [apply unref_external_dec|exact (D Hf)].
    sred. apply (si_ids _ _ _ _ HS).
  - eapply Ext_trans; [|apply unref_external_ext]. subst s0. unfold Ext. sred. apply ExtN_refl.
  - rewrite a11. reflexivity.
Qed.

Lemma bucket_get_next_did ns key z s :
  bucket_get ns key true (set_next_did z s) =
  (set_next_did z (fst (bucket_get ns key true s)), snd (bucket_get ns key true s)).
Proof. unfold bucket_get. sred. destruct (find_key ns key (s_nodes s)); reflexivity. Qed.

Lemma delreg_ok p s x n :
  Inv p s -> s_closed s = false -> In n (s_nodes s) -> n_id n = x ->
  let s' := emit (EvDelReg (s_next_did s) x)
              (upd_node x (nd_dels (n_dels n ++ [s_next_did s])) (set_next_did (s_next_did s + 1) s)) in
  Inv p s' /\ Ext s s'.
Proof.
  intros H Hc Hn Hx. pose proof (forced_false_of_open _ _ H Hc) as Hfo.
  pose proof H as [HS HR HL HP]. unfold InvS, InvR, InvL in *. cbv zeta. split.
  - split; unfold InvS, InvR, InvL; unfold upd_node; sred; auto.
    + eapply (SInv_upd _ _ _ _ x _ n); eauto with cache; try reflexivity.
      intro Hr. cbn. apply (si_resval _ _ _ _ HS n Hn Hr).
    + eapply (RInv_upd zq p p _ _ _ _ _ _ _ _ x _ n); eauto with cache.
      * apply (Inv_ids _ _ H).
      * apply (Inv_p_nonneg _ _ H).
      * intros _ (E & P & V & Z). split; [exact E|split; [intros _; apply P; auto|split; [exact V|exact Z]]].
      * intros _. unfold scontrib. cbn. lia.
    + rewrite Hc in *. apply LInv_delreg; auto. apply (si_ids _ _ _ _ HS).
      rewrite <- Hx. apply (si_fresh _ _ _ _ HS n Hn).
  - unfold Ext, upd_node. sred. apply ExtN_upd; [auto with cache|]. intros m _ _. split; auto.
Qed.

Lemma delete_tail s2 x n2 :
  Inv (padd x 1 p0) s2 -> s_closed s2 = false -> In n2 (s_nodes s2) -> n_id n2 = x ->
  kept p0 s2 (unref_internal x (if s_cacher s2 then lru_ban x s2 else s2)).
Proof.
  intros H2 Hc2 Hn2 Hx2.
  pose proof (kept_cacher _ s2 (lru_ban x) H2 (lru_ban_ok _ s2 x n2 H2 Hc2 Hn2 Hx2)) as K.
  eapply kept_trans; [exact K|]. destruct K as (H3 & (_ & e & _) & _).
  apply unref_internal_kept; [exact H3|unfold p0; lia|congruence].
Qed.

Lemma cache_delete_op_ok s ns key wd :
  Rest s -> Rest (fst (cache_delete_op ns key wd s)) /\ Ext s (fst (cache_delete_op ns key wd s)).
Proof.
  intros (H & Hcap & Hcr). unfold cache_delete_op. destruct (s_closed s) eqn:Hc.
  { cbn. split; [split; auto|apply ExtN_refl]. }
  assert (forall s2, Inv p0 s2 -> CapOk s2 -> s_closed s2 = false -> Ext s s2 -> Rest s2 /\ Ext s s2) as Fin
    by (intros s2 A B' C' D'; split; [now apply rest_open|exact D']).
  destruct (bucket_get ns key true s) as [s1 r] eqn:B.
  pose proof (bucket_get_ok p0 s _ _ _ _ _ H Hc B) as R.
  destruct wd; [rewrite bucket_get_next_did|]; rewrite B; cbn [fst snd]; destruct r as [x|].
  - destruct R as (K1 & n & Hn & Hx & _). destruct (kept_open _ _ _ K1 Hcap Hc) as (H1 & Hcap1 & Hc1 & E & D).
    sred. rewrite <- Hx, (Inv_find_id _ _ _ H1 Hn), Hx.
    destruct (delreg_ok _ s1 x n H1 Hc1 Hn Hx) as (A & A'). cbv zeta in A, A'. rewrite D in A, A'.
    match type of A with Inv _ ?z => set (s2 := z) in * end.
    assert (CapOk s2) as Q1 by (eapply capok_same; [| |exact Hcap1]; subst s2; unfold upd_node; reflexivity).
    assert (s_closed s2 = false) as Q2 by (subst s2; unfold upd_node; sred; exact Hc1).
    assert (In (nd_dels (n_dels n ++ [s_next_did s]) n) (s_nodes s2)) as Q3
      by (subst s2; unfold upd_node; sred; apply in_upd_same; auto).
    destruct (kept_open _ _ _ (delete_tail s2 x _ A Q2 Q3 Hx) Q1 Q2) as (P1 & P2 & P3 & P4 & _).
    cbn [fst]. apply Fin; auto. eapply Ext_trans; [exact E|]. eapply Ext_trans; [exact A'|exact P4].
  - subst s1. cbn [fst]. apply Fin.
    + pose proof H as [HS HR HL HP]. unfold InvS, InvR, InvL in *. split; unfold InvS, InvR, InvL; sred; auto.
      now apply LInv_delrun_now.
    + unfold CapOk in *. sred. exact Hcap.
    + sred. exact Hc.
    + unfold Ext. sred. apply ExtN_refl.
  - destruct R as (K1 & n & Hn & Hx & _). destruct (kept_open _ _ _ K1 Hcap Hc) as (H1 & _ & Hc1 & _).
    cbn [fst]. apply (kept_rest s); auto. eapply kept_trans; [exact K1|]. now apply (delete_tail s1 x n).
  - subst s1. cbn [fst]. apply Fin; auto; apply ExtN_refl.
Qed.

Lemma cache_evict_op_ok s ns key :
  Rest s -> Rest (fst (cache_evict_op ns key s)) /\ Ext s (fst (cache_evict_op ns key s)).
Proof.
  intros (H & Hcap & Hcr). unfold cache_evict_op. destruct (s_closed s) eqn:Hc.
  { cbn. split; [split; auto|apply ExtN_refl]. }
  destruct (bucket_get ns key true s) as [s1 r] eqn:B.
  pose proof (bucket_get_ok p0 s _ _ _ _ _ H Hc B) as R. destruct r as [x|]; cbn [fst]; apply (kept_rest s); auto.
  2: { subst s1. now apply kept_refl. }
  destruct R as (K1 & n & Hn & Hx & _). destruct (kept_open _ _ _ K1 Hcap Hc) as (H1 & _ & Hc1 & _).
  pose proof (forced_false_of_open _ _ H1 Hc1) as Hfo1.
  assert (kept (padd x 1 p0) s1 (if s_cacher s1 then lru_evict x s1 else s1)) as K2.
  { apply (kept_cacher _ s1 (lru_evict x)); auto. apply lru_evict_ok; auto. intro; congruence. }
  eapply kept_trans; [exact K1|]. eapply kept_trans; [exact K2|].
  destruct K2 as (H2 & (_ & e & _) & _). apply unref_internal_kept; [exact H2|unfold p0; lia|congruence].
Qed.

Lemma evict_ids_ok l : forall s,
  Inv p0 s -> s_forced s = false ->
  kept p0 s (evict_ids l s) /\ (forall y, In y (s_order (evict_ids l s)) -> In y (s_order s) /\ ~ In y l).
Proof.
  unfold evict_ids. induction l as [|x l IH]; intros s H Hf; cbn [fold_left].
  - split; [now apply kept_refl|]. intros y Hy. split; auto.
  - destruct (lru_evict_ok _ s x H) as (K & A3); [intro; congruence|]. pose proof K as (A & (_ & _ & e & _) & _).
    destruct (IH (lru_evict x s) A ltac:(congruence)) as (K' & B5). split; [eapply kept_trans; eauto|].
    intros y Hy. destruct (B5 y Hy) as [C1 C2]. rewrite A3 in C1. apply in_remove_order in C1.
    split; [tauto|]. intros [e'|e']; [subst; tauto|tauto].
Qed.

(* EvictNS and EvictAll: lru.Evict over a list of ids, if the cache is open and has an lru *)
Lemma evict_ids_op_ok s l :
  Rest s -> let s' := if s_closed s then s else if s_cacher s then evict_ids l s else s in Rest s' /\ Ext s s'.
Proof.
  intros R. cbv zeta. destruct (s_closed s) eqn:Hc; [|destruct (s_cacher s)]; try (split; [exact R|apply ExtN_refl]).
  destruct R as (H & Hcap & _). apply (kept_rest s); auto. apply evict_ids_ok; auto. eapply forced_false_of_open; eauto.
Qed.

Lemma cache_set_capacity_ok s c : Rest s -> Rest (cache_set_capacity c s) /\ Ext s (cache_set_capacity c s).
Proof.
  intros (H & Hcap & Hcr). unfold cache_set_capacity.
  destruct (s_cacher s); [|split; [split; auto|apply ExtN_refl]].
  destruct (s_closed s) eqn:Hc.
  - (* closed: nothing is linked, the loop does not run *)
    destruct (Hcr Hc) as (Ho & D). pose proof (used_zero_of_empty_order _ _ H Ho) as Hu.
    assert (lru_set_capacity c s = set_cap c s) as ->.
    { unfold lru_set_capacity, run_evict_loop. sred. rewrite Ho. cbn [evict_loop]. sred. rewrite Hu.
      assert ((Z.of_N c <? 0)%Z = false) as -> by (apply Z.ltb_ge; lia). reflexivity. }
    split; [|unfold Ext; sred; apply ExtN_refl].
    split; [destruct H; split; auto|]. split.
    + unfold CapOk. sred. rewrite Hu. lia.
    + intro Hc'. sred. auto.
  - pose proof (forced_false_of_open _ _ H Hc) as Hf.
    destruct (lru_set_capacity_ok p0 s c H Hf) as (A & B & C & D).
    split; [|exact D]. apply rest_open; auto. destruct C as (_ & e & _). sred. congruence.
Qed.

Definition dead (n : node) : Prop := (n_ref n <= 0)%Z /\ n_val n = None /\ n_dels n = [].

Lemma set_closed_ok p s force :
  Inv p s -> s_closed s = false -> Inv p (set_closed true force s).
Proof.
  intros H Hc. pose proof (forced_false_of_open _ _ H Hc) as Hf.
  destruct H as [HS HR HL HP]. unfold InvS, InvR, InvL in *.
  split; unfold InvS, InvR, InvL; sred; auto.
  - rewrite Hc, Hf in HR. now apply RInv_close.
  - rewrite Hc in HL. now apply LInv_close.
Qed.

Lemma close_node_false_ok s x :
  Inv p0 s -> s_forced s = false ->
  kept p0 s (close_node false s x) /\
  (s_cacher s = true -> s_order (close_node false s x) = remove_order x (s_order s)).
Proof.
  intros H Hf. unfold close_node. destruct (s_cacher s).
  - destruct (lru_evict_ok _ s x H) as (K & O); [intro; congruence|]. auto.
  - split; [now apply kept_refl|discriminate].
Qed.

(* a cache without an lru never links a node *)
Definition NoCacher (s : state) : Prop := s_cacher s = false -> s_order s = [].

Lemma upd_absent x f l : ~ In x (ids l) -> upd_id x f l = l.
Proof.
  intro F. unfold upd_id. rewrite <- (map_id l) at 2. apply map_ext_in.
  intros a Ha. destruct (N.eqb_spec (n_id a) x) as [e|ne]; auto. exfalso. apply F. rewrite <- e. now apply in_ids.
Qed.

Lemma close_node_true_ok s x :
  Inv p0 s -> s_forced s = true -> NoCacher s ->
  kept p0 s (close_node true s x) /\
  (forall y, In y (s_order (close_node true s x)) -> In y (s_order s) /\ y <> x) /\
  (forall m', In m' (s_nodes (close_node true s x)) ->
      (n_id m' = x /\ dead m') \/
      (n_id m' <> x /\ exists m, In m (s_nodes s) /\ n_id m = n_id m' /\ (dead m -> dead m'))).
Proof.
  intros H Hf Hnc.
  assert (s_closed s = true) as Hc by (apply (ri_fc _ _ _ _ _ _ _ _ _ (inv_r _ _ H) Hf)).
  unfold close_node.
  (* 1. ref := 0 *)
  set (s1 := upd_node x (nd_ref 0%Z) s).
  assert (kept p0 s s1) as K1.
  { subst s1. split; [|split; [unfold upd_node; repeat split|split; [unfold CapOk, upd_node; sred; auto|apply ref_upd_ext]]].
    destruct (find_id x (s_nodes s)) as [n|] eqn:F.
    - destruct (find_id_some _ _ _ F) as [Hn Hx].
      apply (Inv_upd p0 p0 s x _ n H); auto with cache; [apply (Inv_p_nonneg _ _ H)|intro; congruence].
    - apply find_id_none in F. destruct H as [HS HR HL HP].
      split; unfold InvS, InvR, InvL, upd_node in *; sred; rewrite ?(upd_absent x _ _ F); auto. }
  pose proof K1 as (H1 & _).
  assert (forall m1, In m1 (s_nodes s1) -> (n_id m1 = x /\ n_ref m1 = 0%Z) \/ (n_id m1 <> x /\ In m1 (s_nodes s))) as N1.
  { subst s1. unfold upd_node. sred. intros m1 Hm1. apply in_upd in Hm1. destruct Hm1 as (m & Hm & ->).
    destruct (N.eqb_spec (n_id m) x) as [e|ne]; [left; cbn; auto|right; auto]. }
  assert (s_order s1 = s_order s) as Oss1 by (subst s1; unfold upd_node; reflexivity).
  (* 2. evict *)
  set (s2 := if s_cacher s1 then lru_evict x s1 else s1).
  assert (kept p0 s1 s2 /\ Dec s1 s2 /\
          (forall y, In y (s_order s2) -> In y (s_order s) /\ y <> x)) as (K2 & D2 & O2).
  { subst s2. destruct (s_cacher s1) eqn:Cc.
    - destruct (lru_evict_ok _ s1 x H1) as (K & A3).
      { intros _ m Hm Hmx. destruct (N1 m Hm) as [[_ e]|[ne _]]; [lia|congruence]. }
      split; [exact K|]. split; [apply lru_evict_dec; apply (Inv_ids _ _ H1)|].
      intros y Hy. rewrite A3, Oss1 in Hy. apply in_remove_order in Hy. exact Hy.
    - split; [now apply kept_refl|]. split; [apply DecN_refl|].
      intros y Hy. rewrite Oss1, (Hnc Cc) in Hy. destruct Hy. }
  pose proof (kept_trans _ _ _ _ _ K1 K2) as K12. pose proof K12 as (H2 & (_ & j2 & j3 & _) & _).
  assert (s_closed s2 = true) as Hc2 by congruence.
  (* 3. callFinalizer *)
  assert (forall m2, In m2 (s_nodes s2) ->
            (n_id m2 = x /\ (n_ref m2 <= 0)%Z) \/
            (n_id m2 <> x /\ exists m, In m (s_nodes s) /\ n_id m = n_id m2 /\ (dead m -> dead m2))) as N2.
  { intros m2 Hm2. destruct (D2 m2 Hm2) as (m1 & Hm1 & i & r & v & d).
    destruct (N1 m1 Hm1) as [[e r0]|[ne Hm]].
    - left. split; [congruence|lia].
    - right. split; [congruence|]. exists m1. split; auto. split; auto. intros (a & b & c). repeat split; auto. lia. }
  unfold call_finalizer. destruct (find_id x (s_nodes s2)) as [n2|] eqn:F2.
  - destruct (find_id_some _ _ _ F2) as [Hn2 Hx2].
    assert (resident n2 = false) as Hres2.
    { destruct (resident n2) eqn:R; auto. exfalso.
      assert (In x (s_order s2)) as Hin by (rewrite <- Hx2; now apply (Inv_in_order _ _ _ H2 Hn2)).
      apply O2 in Hin. tauto. }
    set (g := fun n : node => nd_dels [] (nd_val None (n_size n) n)).
    change (dels_ev (n_dels n2) (final_ev (n_val n2) true (s_log s2))) with (fin_log n2 true (s_log s2)).
    split; [eapply kept_trans; [exact K12|]|split; [unfold upd_node; sred; exact O2|]].
    + split; [|split; [unfold upd_node; repeat split|split; [unfold CapOk, upd_node; sred; auto|]]].
      * apply (finalize_inplace p0 p0 s2 x n2 g true); auto; [intro m; repeat split|apply (Inv_p_nonneg _ _ H)|intro; congruence].
      * unfold Ext, upd_node; sred; apply ExtN_upd; [intro m; repeat split|]; intros m _ _; split; auto.
    + unfold upd_node. sred. intros m' Hm'. apply in_upd in Hm'. destruct Hm' as (m2 & Hm2 & ->).
      destruct (N.eqb_spec (n_id m2) x) as [e|ne].
      * left. split; [exact e|]. destruct (N2 m2 Hm2) as [[_ r]|[ne _]]; [|congruence]. repeat split; auto.
      * right. destruct (N2 m2 Hm2) as [[e _]|[_ Q]]; [congruence|]. split; auto.
  - split; [exact K12|split; [exact O2|]].
    intros m' Hm'. destruct (N2 m' Hm') as [[e _]|Q]; [|right; exact Q].
    exfalso. apply find_id_none in F2. apply F2. rewrite <- e. now apply in_ids.
Qed.

Lemma close_loop_false l : forall s,
  Inv p0 s -> s_forced s = false ->
  let s' := fold_left (close_node false) l s in
  kept p0 s s' /\
  (s_cacher s = true -> forall y, In y (s_order s') -> In y (s_order s) /\ ~ In y l) /\
  (s_cacher s = false -> s' = s).
Proof.
  induction l as [|x l IH]; intros s H Hf; cbn [fold_left].
  - split; [now apply kept_refl|]. split; auto.
  - destruct (close_node_false_ok s x H Hf) as (K & O). pose proof K as (A & (j1 & j2 & j3 & j4 & _) & _).
    destruct (IH (close_node false s x) A ltac:(congruence)) as (K' & O' & N').
    split; [eapply kept_trans; eauto|]. split.
    + intros Hca y Hy. destruct (O' ltac:(congruence) y Hy) as [P1 P2]. rewrite (O Hca) in P1.
      apply in_remove_order in P1. split; [tauto|]. intros [e|e]; [subst; tauto|tauto].
    + intro Hca. rewrite N' by congruence. unfold close_node. now rewrite Hca.
Qed.

Lemma close_loop_true l : forall s,
  Inv p0 s -> s_forced s = true -> NoCacher s ->
  (forall n, In n (s_nodes s) -> In (n_id n) l \/ dead n) ->
  let s' := fold_left (close_node true) l s in
  kept p0 s s' /\ (forall y, In y (s_order s') -> In y (s_order s) /\ ~ In y l) /\ all_dead (s_nodes s').
Proof.
  induction l as [|x l IH]; intros s H Hf Hnc Hd; cbn [fold_left].
  - split; [now apply kept_refl|]. split; [auto|]. intros n Hn. destruct (Hd n Hn) as [[]|Q]. exact Q.
  - destruct (close_node_true_ok s x H Hf Hnc) as (K & O & N). pose proof K as (A & (_ & _ & j3 & j4 & _) & _).
    assert (NoCacher (close_node true s x)) as Hnc'.
    { intro Hca. rewrite j4 in Hca. specialize (Hnc Hca).
      destruct (s_order (close_node true s x)) as [|y r] eqn:E; auto.
      destruct (O y) as [P _]; [try rewrite E; now left|]. rewrite Hnc in P. destruct P. }
    destruct (IH (close_node true s x) A ltac:(congruence) Hnc') as (K' & O' & N').
    { intros m' Hm'. destruct (N m' Hm') as [[e Q]|[ne (m & Hm & i & Q)]]; [right; exact Q|].
      destruct (Hd m Hm) as [[e|e]|Q']; [congruence|left; congruence|right; auto]. }
    split; [eapply kept_trans; eauto|]. split; auto.
    intros y Hy. destruct (O' y Hy) as [P1 P2]. destruct (O y P1) as [P3 P4].
    split; auto. intros [e|e]; [subst; tauto|tauto].
Qed.

Lemma cache_close_ok s force :
  Rest s -> NoCacher s -> Rest (cache_close force s) /\ Ext s (cache_close force s) /\ NoCacher (cache_close force s).
Proof.
  intros (H & Hcap & Hcr) Hnc. unfold cache_close. destruct (s_closed s) eqn:Hc.
  { split; [split; auto|]. split; [apply ExtN_refl|auto]. }
  set (s0 := set_closed true force s).
  assert (Inv p0 s0) as H0 by (apply set_closed_ok; auto).
  assert (CapOk s0) as Hcap0 by (unfold CapOk in *; exact Hcap).
  assert (Ext s s0) as E0. { unfold Ext. subst s0. sred. split; [lia|]. split; auto. intros m' Hm' _. exists m'. repeat split; auto. }
  pose proof (inv_s _ _ H0) as HS0. unfold InvS in HS0.
  assert (forall s', (forall y, In y (s_order s') -> In y (s_order s0) /\ ~ In y (map n_id (s_nodes s))) -> s_order s' = []) as Oempty.
  { intros s' P. destruct (s_order s') as [|y r] eqn:E; auto. exfalso.
    destruct (P y) as [P1 P2]; [now left|]. apply (si_ord _ _ _ _ HS0) in P1. destruct P1 as (n & Hn & e & _).
    apply P2. rewrite <- e. subst s0. sred. now apply in_map. }
  destruct force.
  - destruct (close_loop_true (map n_id (s_nodes s)) s0 H0 eq_refl Hnc) as ((A & C & B & D) & O & N).
    { intros n Hn. left. subst s0. sred. now apply in_map. }
    split; [split; [exact A|split; [exact (B Hcap0)|]]|split].
    + intros _. split; [apply Oempty; exact O|]. intros _. exact N.
    + eapply Ext_trans; eauto.
    + intros _. apply Oempty. exact O.
  - destruct (close_loop_false (map n_id (s_nodes s)) s0 H0 eq_refl) as ((A & C & B & D) & O & N).
    pose proof C as (j1 & j2 & j3 & _).
    assert (s_order (fold_left (close_node false) (map n_id (s_nodes s)) s0) = []) as Oe.
    { destruct (s_cacher s0) eqn:Ca.
      - apply Oempty. apply O. reflexivity.
      - rewrite (N eq_refl). apply Hnc. exact Ca. }
    split; [split; [exact A|split; [exact (B Hcap0)|]]|split].
    + intros _. split; [exact Oe|]. intro Q. rewrite j3 in Q. discriminate.
    + eapply Ext_trans; eauto.
    + intros _. exact Oe.
Qed.

(* the cacher flag never changes; without a cacher the recency list is left alone: what keeps [NoCacher] *)
Definition KK (s s' : state) : Prop :=
  s_cacher s' = s_cacher s /\ (s_cacher s = false -> s_order s' = s_order s).

Lemma KK_refl s : KK s s. Proof. split; auto. Qed.
Lemma KK_trans a b c : KK a b -> KK b c -> KK a c.
Proof. intros [A1 A2] [B1 B2]. split; [congruence|]. intro H. rewrite B2, A2; auto. congruence. Qed.
Lemma KK_same_lru s s' : same_lru s s' -> KK s s'.
Proof. intros (_ & _ & o & _ & _ & c & _). split; auto. Qed.
Lemma KK_of_true s s' : s_cacher s = true -> s_cacher s' = s_cacher s -> KK s s'.
Proof. intros H E. split; auto. congruence. Qed.

Lemma evict_loop_C ord : forall s s' ev, evict_loop ord s = (s', ev) -> s_cacher s' = s_cacher s.
Proof.
  induction ord as [|x ord IH]; intros s s' ev E; cbn [evict_loop] in E.
  - destruct (Z.of_N (s_cap s) <? s_used s)%Z; inversion E; reflexivity.
  - destruct (Z.of_N (s_cap s) <? s_used s)%Z; [|inversion E; reflexivity].
    destruct (find_id x (s_nodes s)); [|inversion E; reflexivity].
    destruct (evict_loop ord (evict_one x n ord s)) as [s1 ev1] eqn:E1. inversion E; subst.
    rewrite (IH _ _ _ E1). reflexivity.
Qed.

Lemma release_all_C ev s : s_cacher (release_all ev s) = s_cacher s.
Proof. destruct (release_all_same ev s) as (_ & _ & _ & _ & _ & c & _). exact c. Qed.
Lemma unref_external_C x s : s_cacher (unref_external x s) = s_cacher s.
Proof. destruct (unref_external_same x s) as (_ & _ & _ & _ & _ & c & _). exact c. Qed.

Lemma lru_promote_C x s : s_cacher (lru_promote x s) = s_cacher s.
Proof.
  unfold lru_promote. destruct (find_id x (s_nodes s)); auto. destruct (n_lru n); auto.
  - destruct (n_size n <=? s_cap s); auto. unfold run_evict_loop.
    match goal with |- context [evict_loop ?o ?z] => destruct (evict_loop o z) as [s3 ev] eqn:E3 end.
    rewrite release_all_C, (evict_loop_C _ _ _ _ E3). destruct (n_ref n + 1 <=? 1)%Z; reflexivity.
  - unfold order_remove. destruct (in_order x (s_order s)); reflexivity.
Qed.
Lemma lru_ban_C x s : s_cacher (lru_ban x s) = s_cacher s.
Proof.
  unfold lru_ban. destruct (find_id x (s_nodes s)); auto. destruct (n_lru n); auto.
  rewrite unref_external_C. unfold order_remove. destruct (in_order x (s_order s)); reflexivity.
Qed.
Lemma lru_evict_C x s : s_cacher (lru_evict x s) = s_cacher s.
Proof.
  unfold lru_evict. destruct (find_id x (s_nodes s)); auto. destruct (n_lru n); auto.
  rewrite unref_external_C. unfold order_remove. destruct (in_order x (s_order s)); reflexivity.
Qed.
Lemma lru_set_capacity_C c s : s_cacher (lru_set_capacity c s) = s_cacher s.
Proof.
  unfold lru_set_capacity, run_evict_loop.
  destruct (evict_loop (s_order (set_cap c s)) (set_cap c s)) as [s1 ev] eqn:E.
  rewrite release_all_C, (evict_loop_C _ _ _ _ E). reflexivity.
Qed.
Lemma evict_ids_C l : forall s, s_cacher (evict_ids l s) = s_cacher s.
Proof.
  apply (fold_left_rel (fun s s' => s_cacher s' = s_cacher s)); [reflexivity|intros; congruence|intros; apply lru_evict_C].
Qed.

Lemma bucket_get_KK ns key go s : KK s (fst (bucket_get ns key go s)).
Proof.
  unfold bucket_get. destruct (find_key ns key (s_nodes s)); [split; reflexivity|]. destruct go; split; reflexivity.
Qed.

Lemma get_finish_KK x s : KK s (fst (get_finish x s)).
Proof.
  unfold get_finish. destruct (s_cacher s) eqn:C.
  - apply KK_of_true; auto. transitivity (s_cacher (lru_promote x s)); [|apply lru_promote_C].
    cbv zeta. destruct (find_id x (s_nodes (lru_promote x s))); [destruct (n_val n)|]; reflexivity.
  - destruct (find_id x (s_nodes s)); [destruct (n_val n)|]; split; cbn; auto.
Qed.

Lemma cache_get_KK ns key sf s : KK s (fst (cache_get ns key sf s)).
Proof.
  unfold cache_get. destruct (s_closed s); [apply KK_refl|].
  pose proof (bucket_get_KK ns key match sf with SfNil => true | SfRet _ _ => false end s) as B.
  destruct (bucket_get ns key match sf with SfNil => true | SfRet _ _ => false end s) as [s1 r]. cbn [fst] in B.
  destruct r as [x|]; [|exact B]. eapply KK_trans; [exact B|].
  destruct (find_id x (s_nodes s1)); [|split; reflexivity].
  destruct (n_val n); [apply get_finish_KK|]. destruct sf as [|sz [|]]; cbn [fst].
  - apply KK_same_lru, unref_internal_same.
  - eapply KK_trans; [|apply get_finish_KK]. unfold upd_node. split; reflexivity.
  - eapply KK_trans; [|apply KK_same_lru, unref_internal_same]. unfold upd_node. split; reflexivity.
Qed.

Lemma handle_release_KK h s : KK s (handle_release h s).
Proof.
  unfold handle_release. destruct (find (fun p => fst p =? h) (s_handles s)); [|apply KK_refl].
  eapply KK_trans; [|apply KK_same_lru, unref_external_same]. split; reflexivity.
Qed.

Lemma delete_tail_KK x s : KK s (unref_internal x (if s_cacher s then lru_ban x s else s)).
Proof.
  destruct (s_cacher s) eqn:C.
  - apply KK_of_true; auto. destruct (unref_internal_same x (lru_ban x s)) as (_ & _ & _ & _ & _ & c & _).
    rewrite c. apply lru_ban_C.
  - apply KK_same_lru, unref_internal_same.
Qed.

Lemma cache_delete_op_KK ns key wd s : KK s (fst (cache_delete_op ns key wd s)).
Proof.
  unfold cache_delete_op. destruct (s_closed s); [apply KK_refl|].
  set (s0 := if wd then _ else s). assert (KK s s0) as K0 by (subst s0; destruct wd; split; reflexivity).
  pose proof (bucket_get_KK ns key true s0) as B. destruct (bucket_get ns key true s0) as [s1 r]. cbn [fst] in B.
  eapply KK_trans; [exact K0|]. eapply KK_trans; [exact B|]. destruct r as [x|]; cbn [fst].
  - set (s2 := if wd then _ else s1).
    assert (KK s1 s2) as K2.
    { subst s2. destruct wd; [|apply KK_refl]. destruct (find_id x (s_nodes s1)); unfold upd_node; split; reflexivity. }
    eapply KK_trans; [exact K2|apply delete_tail_KK].
  - destruct wd; split; reflexivity.
Qed.

Lemma cache_evict_op_KK ns key s : KK s (fst (cache_evict_op ns key s)).
Proof.
  unfold cache_evict_op. destruct (s_closed s); [apply KK_refl|].
  pose proof (bucket_get_KK ns key true s) as B. destruct (bucket_get ns key true s) as [s1 r]. cbn [fst] in B.
  eapply KK_trans; [exact B|]. destruct r as [x|]; cbn [fst]; [|apply KK_refl].
  destruct (s_cacher s1) eqn:C.
  - apply KK_of_true; auto. destruct (unref_internal_same x (lru_evict x s1)) as (_ & _ & _ & _ & _ & c & _).
    rewrite c. apply lru_evict_C.
  - apply KK_same_lru, unref_internal_same.
Qed.

Lemma close_fold_KK force l : forall s, KK s (fold_left (close_node force) l s).
Proof.
  induction l as [|x l IH]; intro s; cbn [fold_left]; [apply KK_refl|].
  eapply KK_trans; [|apply IH]. unfold close_node.
  set (s1 := if force then upd_node x (nd_ref 0%Z) s else s).
  assert (KK s s1) as K1 by (subst s1; destruct force; unfold upd_node; split; reflexivity).
  eapply KK_trans; [exact K1|].
  set (s2 := if s_cacher s1 then lru_evict x s1 else s1).
  assert (KK s1 s2) as K2.
  { subst s2. destruct (s_cacher s1) eqn:C; [|apply KK_refl]. apply KK_of_true; auto. apply lru_evict_C. }
  eapply KK_trans; [exact K2|]. destruct force; [|apply KK_refl]. apply KK_same_lru, call_finalizer_same.
Qed.

Lemma step_raw_KK s o : KK s (fst (step_raw s o)).
Proof.
  destruct o; cbn [step_raw fst].
  - apply cache_get_KK.
  - apply handle_release_KK.
  - apply cache_delete_op_KK.
  - apply cache_evict_op_KK.
  - unfold cache_evict_ns. destruct (s_closed s); [apply KK_refl|]. destruct (s_cacher s) eqn:C; [|apply KK_refl].
    apply KK_of_true; auto. apply evict_ids_C.
  - unfold cache_evict_all. destruct (s_closed s); [apply KK_refl|]. destruct (s_cacher s) eqn:C; [|apply KK_refl].
    apply KK_of_true; auto. apply evict_ids_C.
  - unfold cache_set_capacity. destruct (s_cacher s) eqn:C; [|apply KK_refl].
    apply KK_of_true; auto. apply lru_set_capacity_C.
  - unfold cache_close. destruct (s_closed s); [apply KK_refl|].
    eapply KK_trans; [|apply close_fold_KK]. split; reflexivity.
Qed.

Lemma NoCacher_KK s s' : KK s s' -> NoCacher s -> NoCacher s'.
Proof. intros [A B] H C. rewrite A in C. rewrite B; auto. Qed.

(* what holds of every state between two operations *)
Definition Good (s : state) : Prop := Rest s /\ NoCacher s.

Lemma init_good cacher cap : Good (init cacher cap).
Proof.
  (* no node, no handle, no event: every clause is about members of an empty list or a count in one *)
  unfold init. split; [split; [|split]|]; [|unfold CapOk; cbn; lia|intro; discriminate|intro; reflexivity].
  split; unfold InvS, InvR, InvL; sred; auto; split; cbn; unfold p0, cf, ccv, ccn, cdr, count_ev; cbn;
    intros; try contradiction; try constructor; try lia; auto; try discriminate. intros (? & [] & _).
Qed.

Lemma step_raw_fst s o : fst (step s o) = fst (step_raw s o).
Proof. unfold step. destruct (step_raw s o). reflexivity. Qed.

Lemma step_good s o : Good s -> Good (fst (step s o)) /\ Ext s (fst (step s o)).
Proof.
  intros [R NC]. rewrite step_raw_fst.
  assert (NoCacher (fst (step_raw s o))) as NC' by (eapply NoCacher_KK; [apply step_raw_KK|exact NC]).
  destruct o; cbn [step_raw fst] in *.
  - destruct (cache_get_ok s ns key sf R) as (A & B & _). split; [split|]; auto.
  - destruct (handle_release_ok s h R) as (A & B & _). split; [split|]; auto.
  - destruct (cache_delete_op_ok s ns key with_del R) as (A & B). split; [split|]; auto.
  - destruct (cache_evict_op_ok s ns key R) as (A & B). split; [split|]; auto.
  - destruct (evict_ids_op_ok s (ids_of_ns ns (s_nodes s)) R) as (A & B). split; [split|]; auto.
  - destruct (evict_ids_op_ok s (map n_id (s_nodes s)) R) as (A & B). split; [split|]; auto.
  - destruct (cache_set_capacity_ok s c R) as (A & B). split; [split|]; auto.
  - destruct (cache_close_ok s force R NC) as (A & B & C). split; [split|]; auto.
Qed.

Lemma run_good ops : forall s, Good s -> Good (run s ops) /\ Ext s (run s ops).
Proof.
  unfold run. induction ops as [|o ops IH]; intros s G; cbn [fold_left].
  - split; auto. apply ExtN_refl.
  - destruct (step_good s o G) as [G1 E1]. destruct (IH _ G1) as [G2 E2]. split; auto. eapply Ext_trans; eauto.
Qed.

Definition reachable (s : state) : Prop := exists cacher cap ops, s = run (init cacher cap) ops.

Lemma reachable_good s : reachable s -> Good s.
Proof. intros (c & cap & ops & ->). apply run_good, init_good. Qed.

Lemma reachable_step s o : reachable s -> reachable (fst (step s o)).
Proof.
  intros (c & cap & ops & ->). exists c, cap, (ops ++ [o]). unfold run. rewrite fold_left_app. reflexivity.
Qed.

Lemma step_raw_panic s o : snd (step_raw s o) = RPanic -> s_panic (fst (step_raw s o)) = true.
Proof.
  destruct o; cbn [step_raw fst snd]; try discriminate.
  - unfold cache_get. destruct (s_closed s); [discriminate|].
    destruct (bucket_get ns key match sf with SfNil => true | SfRet _ _ => false end s) as [s1 [x|]]; [|discriminate].
    assert (forall z, snd (get_finish x z) = RPanic -> s_panic (fst (get_finish x z)) = true) as GF.
    { intros z. unfold get_finish. cbv zeta.
      destruct (find_id x (s_nodes (if s_cacher z then lru_promote x z else z))); [destruct (n_val n)|]; cbn; auto; discriminate. }
    destruct (find_id x (s_nodes s1)); [|reflexivity].
    destruct (n_val n); [apply GF|]. destruct sf as [|sz [|]]; cbn [snd]; try discriminate. apply GF.
  - unfold cache_delete_op. destruct (s_closed s); [discriminate|].
    destruct (bucket_get ns key true (if with_del then set_next_did (s_next_did s + 1) s else s)) as [s1 [x|]]; discriminate.
  - unfold cache_evict_op. destruct (s_closed s); [discriminate|].
    destruct (bucket_get ns key true s) as [s1 [x|]]; discriminate.
Qed.

Lemma step_no_panic s o : Good s -> snd (step s o) <> RPanic /\ s_panic (fst (step s o)) = false.
Proof.
  intro G. destruct (step_good s o G) as [[(H & _) _] _].
  pose proof (inv_np _ _ H) as P. split; auto.
  rewrite step_raw_fst in P. unfold step. pose proof (step_raw_panic s o) as Q.
  destruct (step_raw s o) as [s' r]. cbn [fst snd] in *. rewrite P. intro e. specialize (Q e). congruence.
Qed.

End WithZq.
