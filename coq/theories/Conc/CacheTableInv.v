(* Conc/CacheTableInv.v — the structural invariant of the chain of table heads ([chain_ok]), what the
   logical contents of a bucket look like under it ([content_ok]), and the effect of mBucket.freeze and
   mHead.initBucket: they change the REPRESENTATION only (a bucket goes uninitialised -> initialised ->
   frozen, its nodes are fixed once it is initialised), never the logical contents. *)
From GL Require Import Conc.CacheTable Conc.CacheTableLemmas.
From GL Require Mem.ListLemmas.
From Coq Require Import Lia.

Section Inv.
Variable hashf : N -> N -> N.

(* a node in bucket i of head h: its hash selects that bucket under h's mask, and is the hash of its key *)
Definition placed (h : head) (i : N) (x : tnode) : Prop :=
  N.land (tn_hash x) (h_mask h) = i /\ tn_hash x = hashf (tn_ns x) (tn_key x).
Definition nodes_ok (h : head) (i : N) (l : list tnode) : Prop :=
  ssorted l /\ (forall x, In x l -> placed h i x).
(* 2^e buckets, mask 2^e - 1 *)
Definition shape (h : head) (e : N) : Prop := h_mask h = N.ones e /\ hlen h = 2 ^ e.
Definition head_ok (h : head) : Prop :=
  forall i, i < hlen h -> b_state (bget h i) <> BUninit -> nodes_ok h i (b_nodes (bget h i)).
(* a head and its predecessor: one has twice the buckets of the other *)
Definition link (h p : head) : Prop :=
  exists e, (shape h (e + 1) /\ shape p e) \/ (shape h e /\ shape p (e + 1)).

Definition tail_ok (h : head) (rest : list head) : Prop :=
  match rest with
  | [] => h_pred h = false /\ (exists e, shape h e) /\ (forall i, i < hlen h -> b_state (bget h i) <> BUninit)
  | p :: _ => h_pred h = true /\ link h p
  end.

Fixpoint chain_ok (hs : list head) : Prop :=
  match hs with
  | [] => False
  | h :: rest => head_ok h /\ tail_ok h rest /\ match rest with [] => True | _ => chain_ok rest end
  end.

Definition bucket_le (b b' : bucket) : Prop :=
  match b_state b with
  | BUninit => True
  | BInit => b_nodes b' = b_nodes b /\ b_state b' <> BUninit
  | BFrozen => b' = b
  end.
Definition head_le (h h' : head) : Prop :=
  h_id h' = h_id h /\ h_mask h' = h_mask h /\ h_pred h' = h_pred h /\ h_resizing h' = h_resizing h /\
  h_overflow h' = h_overflow h /\ h_grow h' = h_grow h /\ h_shrink h' = h_shrink h /\
  length (h_buckets h') = length (h_buckets h) /\ forall i, bucket_le (bget h i) (bget h' i).
Definition evolves : list head -> list head -> Prop := Forall2 head_le.

Lemma bucket_le_refl : forall b, bucket_le b b.
Proof. intro b. unfold bucket_le. destruct (b_state b) eqn:E; auto. split; auto. congruence. Qed.

Lemma bucket_le_trans : forall a b c, bucket_le a b -> bucket_le b c -> bucket_le a c.
Proof.
  intros a b c. unfold bucket_le. destruct (b_state a) eqn:Ea; auto.
  - intros [Hn Hs]. destruct (b_state b) eqn:Eb.
    + exfalso. apply Hs. reflexivity.
    + intros [Hn' Hs']. split; congruence.
    + intros ->. split; congruence.
  - intros ->. rewrite Ea. auto.
Qed.

Lemma head_le_refl : forall h, head_le h h.
Proof. intro h. unfold head_le. repeat split; auto. intro; apply bucket_le_refl. Qed.

Lemma head_le_trans : forall a b c, head_le a b -> head_le b c -> head_le a c.
Proof.
  unfold head_le. intros a b c (A1 & A2 & A3 & A4 & A5 & A6 & A7 & A8 & A9) (B1 & B2 & B3 & B4 & B5 & B6 & B7 & B8 & B9).
  repeat split; try congruence. intro i. eapply bucket_le_trans; eauto.
Qed.

Lemma evolves_refl : forall l, evolves l l.
Proof. induction l; constructor; auto. apply head_le_refl. Qed.

Lemma evolves_trans : forall a b c, evolves a b -> evolves b c -> evolves a c.
Proof.
  intros a b c H. revert c. induction H; intros c Hc; inversion Hc; subst; constructor.
  - eapply head_le_trans; eauto.
  - apply IHForall2; auto.
Qed.

Lemma evolves_length : forall a b, evolves a b -> length a = length b.
Proof. intros a b H. induction H; simpl; auto. Qed.

Lemma head_le_hlen : forall h h', head_le h h' -> hlen h' = hlen h.
Proof. unfold head_le, hlen. intros h h' H. decompose [and] H. congruence. Qed.

Lemma head_le_mask : forall h h', head_le h h' -> h_mask h' = h_mask h.
Proof. unfold head_le. intros h h' H. decompose [and] H. congruence. Qed.

Lemma head_le_shape : forall h h' e, head_le h h' -> shape h e -> shape h' e.
Proof.
  unfold shape. intros h h' e H [Hm Hl]. rewrite (head_le_mask _ _ H), (head_le_hlen _ _ H). auto.
Qed.

Lemma hlen_bset : forall h i b, hlen (bset h i b) = hlen h.
Proof. intros. unfold hlen, bset. simpl. rewrite length_upd_nth. reflexivity. Qed.

Lemma bget_bset_eq : forall h i b, i < hlen h -> bget (bset h i b) i = b.
Proof. intros. unfold bget, bset, hlen in *. simpl. apply nth_upd_nth_eq. lia. Qed.

Lemma bget_bset_neq : forall h i j b, i <> j -> bget (bset h i b) j = bget h j.
Proof. intros. unfold bget, bset. simpl. apply nth_upd_nth_neq. lia. Qed.

Lemma bget_out : forall h i, hlen h <= i -> bget h i = ubucket.
Proof. intros. unfold bget, hlen in *. apply nth_overflow. lia. Qed.

Lemma head_le_bset : forall h i b, i < hlen h -> bucket_le (bget h i) b -> head_le h (bset h i b).
Proof.
  intros h i b Hi Hb. unfold head_le. simpl. rewrite length_upd_nth. repeat split; auto.
  intro j. destruct (N.eq_dec i j).
  - subst. rewrite bget_bset_eq by auto. exact Hb.
  - rewrite bget_bset_neq by auto. apply bucket_le_refl.
Qed.

Lemma ones_ltb_succ : forall e, N.ones e <? N.ones (e + 1) = true.
Proof. intro. apply N.ltb_lt. rewrite ones_succ. lia. Qed.
Lemma ones_ltb_succ' : forall e, N.ones (e + 1) <? N.ones e = false.
Proof. intro. apply N.ltb_ge. rewrite ones_succ. lia. Qed.

Lemma link_cases : forall h p, link h p ->
  (h_mask p <? h_mask h = true /\ exists e, shape h (e + 1) /\ shape p e) \/
  (h_mask p <? h_mask h = false /\ exists e, shape h e /\ shape p (e + 1)).
Proof.
  intros h p [e [[Hh Hp]|[Hh Hp]]].
  - left. split; [|eauto]. destruct Hh as [-> _], Hp as [-> _]. apply ones_ltb_succ.
  - right. split; [|eauto]. destruct Hh as [-> _], Hp as [-> _]. apply ones_ltb_succ'.
Qed.

Lemma link_le : forall h h' p p', link h p -> head_le h h' -> head_le p p' -> link h' p'.
Proof.
  intros h h' p p' [e [[Hh Hp]|[Hh Hp]]] H1 H2; exists e; [left|right]; split; eapply head_le_shape; eauto.
Qed.

Lemma chain_ok_tail : forall h p r, chain_ok (h :: p :: r) -> chain_ok (p :: r).
Proof. intros h p r (_ & _ & H). exact H. Qed.

Lemma chain_ok_head : forall h rest, chain_ok (h :: rest) -> head_ok h.
Proof. intros h rest (H & _). exact H. Qed.

Lemma chain_ok_link : forall h p r, chain_ok (h :: p :: r) -> link h p /\ h_pred h = true.
Proof. intros h p r (_ & (Hp & Hl) & _). auto. Qed.

Lemma chain_ok_shape : forall h rest, chain_ok (h :: rest) -> exists e, shape h e.
Proof.
  intros h rest (_ & Ht & _). destruct rest as [|p r]; simpl in Ht.
  - destruct Ht as (_ & He & _). exact He.
  - destruct Ht as (_ & [e [[Hh _]|[Hh _]]]); eauto.
Qed.

Lemma land_mask_lt : forall h x, (exists e, shape h e) -> N.land x (h_mask h) < hlen h.
Proof. intros h x [e [Hm Hl]]. rewrite Hm, Hl. apply land_ones_lt. Qed.

Lemma content_cons_init : forall h rest i, b_state (bget h i) <> BUninit ->
  content (h :: rest) i = b_nodes (bget h i).
Proof. intros. simpl. destruct (b_state (bget h i)); congruence. Qed.

Lemma content_unfold1 : forall h rest i, content (h :: rest) i =
  match b_state (bget h i) with
  | BInit | BFrozen => b_nodes (bget h i)
  | BUninit =>
      match rest with
      | [] => []
      | p :: _ =>
          if h_mask p <? h_mask h then
            filter (fun x => N.land (tn_hash x) (h_mask h) =? i) (content rest (N.land i (h_mask p)))
          else sort_nodes (content rest i ++ content rest (i + hlen h))
      end
  end.
Proof. reflexivity. Qed.

Lemma content_unfold : forall h p r i, content (h :: p :: r) i =
  match b_state (bget h i) with
  | BInit | BFrozen => b_nodes (bget h i)
  | BUninit =>
      if h_mask p <? h_mask h then
        filter (fun x => N.land (tn_hash x) (h_mask h) =? i) (content (p :: r) (N.land i (h_mask p)))
      else sort_nodes (content (p :: r) i ++ content (p :: r) (i + hlen h))
  end.
Proof. reflexivity. Qed.

Lemma content_congr : forall h h' p p' r r' i,
  h_mask h' = h_mask h -> hlen h' = hlen h -> bget h' i = bget h i -> h_mask p' = h_mask p ->
  link h p -> i < hlen h ->
  (forall j, j < hlen p -> content (p' :: r') j = content (p :: r) j) ->
  content (h' :: p' :: r') i = content (h :: p :: r) i.
Proof.
  intros h h' p p' r r' i Hm Hl Hb Hmp Hlink Hi Hc.
  rewrite (content_unfold h' p' r'), (content_unfold h p r). rewrite Hb. destruct (b_state (bget h i)); auto.
  rewrite Hm, Hmp, Hl.
  destruct (link_cases _ _ Hlink) as [[Hlt [e [Hh Hp]]]|[Hlt [e [Hh Hp]]]]; rewrite Hlt.
  - f_equal. apply Hc. destruct Hp as [-> ->]. apply land_ones_lt.
  - destruct Hh as [_ Hhl], Hp as [_ Hpl]. rewrite Hhl in *. f_equal. f_equal.
    + apply Hc. rewrite Hpl, pow_succ1. lia.
    + apply Hc. rewrite Hpl, pow_succ1. lia.
Qed.

Lemma nodes_ok_nodup_keys : forall h i l, nodes_ok h i l -> NoDup (map tkey l).
Proof. intros h i l [Hs _]. apply ssorted_keys_nodup; auto. Qed.

(* nodes with the same key have the same hash, hence live in the same bucket *)
Lemma placed_same_key : forall h i j x y, placed h i x -> placed h j y -> tkey x = tkey y -> i = j.
Proof.
  intros h i j x y [Hx Hhx] [Hy Hhy] E. unfold tkey in E. inversion E.
  rewrite <- Hx, <- Hy, Hhx, Hhy. congruence.
Qed.

Lemma content_ok : forall h rest, chain_ok (h :: rest) -> forall i, i < hlen h -> nodes_ok h i (content (h :: rest) i).
Proof.
  intros h rest. revert h. induction rest as [|p r IH]; intros h Hok i Hi;
    destruct (b_state (bget h i)) eqn:Es.
  2,3,5,6: rewrite content_cons_init by congruence; apply (chain_ok_head _ _ Hok); auto; congruence.
  { destruct Hok as (_ & (_ & _ & Hall) & _). exfalso. apply (Hall i); auto. }
  pose proof (chain_ok_tail _ _ _ Hok) as Hokp.
  destruct (chain_ok_link _ _ _ Hok) as [Hlink _].
  rewrite content_unfold, Es.
  destruct (link_cases _ _ Hlink) as [[Hlt [e [Hh Hp]]]|[Hlt [e [Hh Hp]]]]; rewrite Hlt.
  - assert (Hj : N.land i (h_mask p) < hlen p) by (destruct Hp as [-> ->]; apply land_ones_lt).
    destruct (IH p Hokp _ Hj) as [Hs Hpl]. split.
    + apply ssorted_filter; auto.
    + intros x Hx. apply filter_In in Hx. destruct Hx as [Hx Hf]. apply N.eqb_eq in Hf.
      split; auto. apply (Hpl x Hx).
  - destruct Hh as [Hhm Hhl], Hp as [Hpm Hpl]. rewrite Hhl in *.
    assert (Hi1 : i < hlen p) by (rewrite Hpl, pow_succ1; lia).
    assert (Hi2 : i + 2 ^ e < hlen p) by (rewrite Hpl, pow_succ1; lia).
    pose proof (IH p Hokp _ Hi1) as H1.
    pose proof (IH p Hokp _ Hi2) as H2.
    split.
    + apply sort_nodes_sorted. rewrite map_app. apply ListLemmas.NoDup_app_intro.
      * eapply nodes_ok_nodup_keys; eauto.
      * eapply nodes_ok_nodup_keys; eauto.
      * intros k Hk1 Hk2. apply in_map_iff in Hk1. apply in_map_iff in Hk2.
        destruct Hk1 as [x [Ex Hx]], Hk2 as [y [Ey Hy]].
        assert (i = i + 2 ^ e).
        { eapply placed_same_key; [apply (proj2 H1 x Hx)|apply (proj2 H2 y Hy)|congruence]. }
        pose proof (N.pow_nonzero 2 e). lia.
    + intros x Hx. rewrite sort_nodes_in in Hx. apply in_app_or in Hx.
      destruct Hx as [Hx|Hx].
      * destruct (proj2 H1 x Hx) as [Hl Hh]. split; auto. rewrite Hhm. rewrite Hpm in Hl.
        rewrite land_coarsen, Hl. apply land_ones_small; auto.
      * destruct (proj2 H2 x Hx) as [Hl Hh]. split; auto. rewrite Hhm. rewrite Hpm in Hl.
        rewrite land_coarsen, Hl. apply land_ones_add_pow; auto.
Qed.

Lemma chain_ok_replace_head : forall h h' rest, chain_ok (h :: rest) -> head_ok h' ->
  h_pred h' = h_pred h -> h_mask h' = h_mask h -> hlen h' = hlen h ->
  (forall i, b_state (bget h i) <> BUninit -> b_state (bget h' i) <> BUninit) ->
  chain_ok (h' :: rest).
Proof.
  intros h h' rest (Hh & Ht & Hr) Hh' Hp Hm Hl Hst. split; [auto|]. split; [|auto].
  destruct rest as [|p r]; simpl in *.
  - destruct Ht as (Hpf & [e [Hem Hel]] & Hall). split; [congruence|]. split.
    + exists e. split; congruence.
    + intros i Hi. apply Hst, Hall. congruence.
  - destruct Ht as (Hpt & [e Hlk]). split; [congruence|]. exists e. unfold shape in *.
    rewrite Hm, Hl. exact Hlk.
Qed.

Lemma chain_ok_replace_tail : forall h p p' r r', chain_ok (h :: p :: r) -> chain_ok (p' :: r') ->
  head_le p p' -> chain_ok (h :: p' :: r').
Proof.
  intros h p p' r r' (Hh & (Hp & Hl) & Hr) Hok Hle. split; [auto|]. split; [|exact Hok].
  split; auto. eapply link_le; eauto. apply head_le_refl.
Qed.

Lemma chain_ok_bset : forall h rest i b, chain_ok (h :: rest) -> i < hlen h -> b_state b <> BUninit ->
  nodes_ok h i (b_nodes b) -> chain_ok (bset h i b :: rest).
Proof.
  intros h rest i b Hok Hi Hs Hn. apply (chain_ok_replace_head h); auto; try apply hlen_bset.
  - intros j Hj Hsj. rewrite hlen_bset in Hj. destruct (N.eq_dec i j).
    + subst j. rewrite bget_bset_eq by auto. destruct Hn as [Hso Hpl]. split; auto.
    + rewrite bget_bset_neq in * by auto. destruct (chain_ok_head _ _ Hok j Hj Hsj) as [Hso Hpl]. split; auto.
  - intros j Hsj. destruct (N.eq_dec i j).
    + subst j. rewrite bget_bset_eq by auto. exact Hs.
    + rewrite bget_bset_neq by auto. auto.
Qed.

Lemma content_bset : forall h rest i i' b, i < hlen h -> b_state b <> BUninit ->
  content (bset h i b :: rest) i' = if i' =? i then b_nodes b else content (h :: rest) i'.
Proof.
  intros h rest i i' b Hi Hs. destruct (N.eqb_spec i' i).
  - subst. rewrite content_cons_init; rewrite bget_bset_eq by auto; auto.
  - rewrite !content_unfold1. rewrite bget_bset_neq by auto. rewrite hlen_bset. reflexivity.
Qed.

Lemma freeze_ok : forall h rest j, chain_ok (h :: rest) -> j < hlen h -> b_state (bget h j) <> BUninit ->
  exists h', freeze_at (h :: rest) j = (h' :: rest, b_nodes (bget h j), false) /\
    chain_ok (h' :: rest) /\ head_le h h' /\
    (forall i, content (h' :: rest) i = content (h :: rest) i) /\
    b_state (bget h' j) = BFrozen /\ b_nodes (bget h' j) = b_nodes (bget h j) /\
    (forall i, i <> j -> bget h' i = bget h i).
Proof.
  intros h rest j Hok Hj Hs. unfold freeze_at.
  destruct (b_state (bget h j)) eqn:Es; [congruence| |].
  - set (b' := mkB BFrozen (b_nodes (bget h j))).
    exists (bset h j b'). split; [reflexivity|].
    assert (Hbj : bget (bset h j b') j = b') by (apply bget_bset_eq; auto).
    split; [|split; [|split; [|split; [rewrite Hbj; reflexivity|split; [rewrite Hbj; reflexivity|]]]]].
    + apply chain_ok_bset; auto; [discriminate|]. apply (chain_ok_head _ _ Hok j Hj). congruence.
    + apply head_le_bset; auto. unfold bucket_le. rewrite Es. split; [reflexivity|discriminate].
    + intro i. rewrite content_bset by (auto; discriminate). destruct (N.eqb_spec i j); [|reflexivity].
      subst i. rewrite content_cons_init by congruence. reflexivity.
    + intros i Hi. apply bget_bset_neq. auto.
  - exists h. split; [reflexivity|]. split; [auto|]. split; [apply head_le_refl|].
    repeat split; auto.
Qed.

Definition init_spec (fuel : nat) : Prop :=
  forall h rest i, (length (h :: rest) <= fuel)%nat -> chain_ok (h :: rest) -> i < hlen h ->
  exists h' rest', init_bucket fuel (h :: rest) i = (h' :: rest', false) /\
    chain_ok (h' :: rest') /\ head_le h h' /\ evolves rest rest' /\
    (forall i', i' < hlen h -> content (h' :: rest') i' = content (h :: rest) i') /\
    b_state (bget h' i) <> BUninit /\
    (forall i', b_state (bget h' i') = BFrozen -> b_state (bget h i') = BFrozen).

Lemma init_freeze : forall f, init_spec f -> forall p r j, (length (p :: r) <= f)%nat -> chain_ok (p :: r) -> j < hlen p ->
  exists p1 r1 p2, init_bucket f (p :: r) j = (p1 :: r1, false) /\
    freeze_at (p1 :: r1) j = (p2 :: r1, content (p :: r) j, false) /\
    chain_ok (p2 :: r1) /\ head_le p p2 /\ evolves r r1 /\
    (forall i', i' < hlen p -> content (p2 :: r1) i' = content (p :: r) i').
Proof.
  intros f IH p r j Hlen Hok Hj.
  destruct (IH p r j Hlen Hok Hj) as (p1 & r1 & E1 & Hok1 & Hle1 & Hev1 & Hc1 & Hs1 & _).
  assert (Hj1 : j < hlen p1) by (rewrite (head_le_hlen _ _ Hle1); auto).
  destruct (freeze_ok p1 r1 j Hok1 Hj1 Hs1) as (p2 & E2 & Hok2 & Hle2 & Hc2 & _).
  exists p1, r1, p2. split; [exact E1|]. split.
  - rewrite E2. f_equal. f_equal. rewrite <- (Hc1 j Hj). rewrite content_cons_init by auto. reflexivity.
  - split; [exact Hok2|]. split; [eapply head_le_trans; eauto|]. split; [exact Hev1|].
    intros i' Hi'. rewrite Hc2. apply Hc1; auto.
Qed.

Lemma init_bucket_S : forall f h rest i,
  init_bucket (S f) (h :: rest) i =
    if negb (i <? hlen h) then (h :: rest, true) else
    match b_state (bget h i) with
    | BInit | BFrozen => (h :: rest, false)
    | BUninit =>
        if negb (h_pred h) then (h :: rest, true) else
        match rest with
        | [] => (h :: rest, true)
        | p :: _ =>
            if h_mask p <? h_mask h then
              let j := N.land i (h_mask p) in
              let '(rest1, pn1) := init_bucket f rest j in
              let '(rest2, m, pn2) := freeze_at rest1 j in
              let nodes := filter (fun x => N.land (tn_hash x) (h_mask h) =? i) m in
              (bset h i (mkB BInit nodes) :: rest2, pn1 || pn2)
            else
              let '(rest1, pn1) := init_bucket f rest i in
              let '(rest2, m0, pn2) := freeze_at rest1 i in
              let j := i + hlen h in
              let '(rest3, pn3) := init_bucket f rest2 j in
              let '(rest4, m1, pn4) := freeze_at rest3 j in
              (bset h i (mkB BInit (sort_nodes (m0 ++ m1))) :: rest4, pn1 || pn2 || pn3 || pn4)
        end
    end.
Proof. reflexivity. Qed.

Lemma init_fill : forall h p r p' r' i nodes,
  chain_ok (h :: p :: r) -> i < hlen h -> b_state (bget h i) = BUninit ->
  chain_ok (p' :: r') -> head_le p p' -> evolves r r' ->
  (forall j, j < hlen p -> content (p' :: r') j = content (p :: r) j) ->
  nodes = content (h :: p :: r) i ->
  let h' := bset h i (mkB BInit nodes) in
  chain_ok (h' :: p' :: r') /\ head_le h h' /\ evolves (p :: r) (p' :: r') /\
  (forall i', i' < hlen h -> content (h' :: p' :: r') i' = content (h :: p :: r) i') /\
  b_state (bget h' i) <> BUninit /\
  (forall i', b_state (bget h' i') = BFrozen -> b_state (bget h i') = BFrozen).
Proof.
  intros h p r p' r' i nodes Hok Hi Es Hok' Hle Hev Hc Hn h'.
  assert (Hbi : bget h' i = mkB BInit nodes) by (apply bget_bset_eq; auto).
  assert (Hlen : hlen h' = hlen h) by apply hlen_bset.
  destruct (chain_ok_link _ _ _ Hok) as [Hlink Hpred].
  split; [|split; [|split; [constructor; auto|split; [|split]]]].
  - apply (chain_ok_replace_tail h' p p' r r'); auto.
    apply chain_ok_bset; auto; [discriminate|]. subst nodes. apply content_ok; auto.
  - apply head_le_bset; auto. unfold bucket_le. rewrite Es. exact I.
  - intros i' Hi'. destruct (N.eq_dec i i').
    + subst i'. rewrite content_cons_init by (rewrite Hbi; discriminate). rewrite Hbi. simpl. auto.
    + apply content_congr; auto.
      * unfold h'. apply bget_bset_neq; auto.
      * apply head_le_mask; auto.
  - rewrite Hbi. discriminate.
  - intros i' Hf. destruct (N.eq_dec i i'); [subst; rewrite Hbi in Hf; discriminate|].
    unfold h' in Hf. rewrite bget_bset_neq in Hf by auto. auto.
Qed.

Lemma init_ok : forall fuel, init_spec fuel.
Proof.
  induction fuel as [|f IH]; intros h rest i Hlen Hok Hi; [simpl in Hlen; lia|].
  rewrite init_bucket_S.
  assert (Hlt : i <? hlen h = true) by (apply N.ltb_lt; auto). rewrite Hlt. cbn [negb].
  destruct (b_state (bget h i)) eqn:Es.
  2,3: exists h, rest; split; [reflexivity|]; split; [auto|]; split; [apply head_le_refl|];
       split; [apply evolves_refl|]; split; [auto|]; split; [congruence|auto].
  destruct rest as [|p r].
  { destruct Hok as (_ & (_ & _ & Hall) & _). exfalso. apply (Hall i); auto. }
  destruct (chain_ok_link _ _ _ Hok) as [Hlink Hpred]. rewrite Hpred. cbn [negb].
  pose proof (chain_ok_tail _ _ _ Hok) as Hokp.
  assert (Hlenp : (length (p :: r) <= f)%nat) by (simpl in *; lia).
  destruct (link_cases _ _ Hlink) as [[Hltb [e [Hh Hp]]]|[Hltb [e [Hh Hp]]]]; rewrite Hltb.
  - assert (Hj : N.land i (h_mask p) < hlen p) by (destruct Hp as [-> ->]; apply land_ones_lt).
    destruct (init_freeze f IH p r _ Hlenp Hokp Hj) as (p1 & r1 & p2 & E1 & E2 & Hok2 & Hle2 & Hev & Hc).
    cbv zeta. rewrite E1, E2. cbn [orb].
    eexists; eexists; split; [reflexivity|].
    apply init_fill; auto.
    rewrite content_unfold, Es, Hltb. reflexivity.
  - destruct Hh as [Hhm Hhl], Hp as [Hpm Hpl].
    assert (Hi1 : i < hlen p) by (rewrite Hpl, pow_succ1; lia).
    assert (Hi2 : i + hlen h < hlen p) by (rewrite Hpl, Hhl, pow_succ1; lia).
    destruct (init_freeze f IH p r _ Hlenp Hokp Hi1) as (p1 & r1 & p2 & E1 & E2 & Hok2 & Hle2 & Hev2 & Hc2).
    assert (Hlen2 : (length (p2 :: r1) <= f)%nat).
    { simpl in *. rewrite <- (evolves_length _ _ Hev2). lia. }
    assert (Hi2' : i + hlen h < hlen p2) by (rewrite (head_le_hlen _ _ Hle2); auto).
    destruct (init_freeze f IH p2 r1 _ Hlen2 Hok2 Hi2') as (p3 & r3 & p4 & E3 & E4 & Hok4 & Hle4 & Hev4 & Hc4).
    cbv zeta. rewrite E1, E2, E3, E4. cbn [orb].
    eexists; eexists; split; [reflexivity|].
    apply init_fill; auto.
    + eapply head_le_trans; eauto.
    + eapply evolves_trans; eauto.
    + intros j Hj. rewrite Hc4 by (rewrite (head_le_hlen _ _ Hle2); auto). apply Hc2; auto.
    + rewrite content_unfold, Es, Hltb. rewrite (Hc2 _ Hi2). reflexivity.
Qed.

End Inv.
