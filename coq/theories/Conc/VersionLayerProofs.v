(* Conc/VersionLayerProofs.v — the version layer (model Conc/VersionLayer.v) only sends event
   sequences that satisfy the protocol env_ok of Conc/RefLoop.v, for every sequence of operations
   that respects the API discipline: a simulation between the version-layer state (with the ghost
   bookkeeping of the discipline) and the protocol checker's state.  Composed with the theorems about
   the loop (Conc/RefLoopProofs.v) this gives the end-to-end statements of Props/C07.v. *)
From Coq Require Import NArith List Bool Lia Permutation.
From GL Require Import Conc.RefLoop Conc.RefLoopLemmas Conc.RefLoopInv Conc.RefLoopChain Conc.RefLoopEnv Conc.RefLoopProofs
  Conc.VersionLayer Conc.VersionLayerLemmas.
From GL Require Mem.ListLemmas.
Import ListNotations.
Open Scope N_scope.

Fixpoint env_evs (e : envst) (evs : list event) : option envst :=
  match evs with
  | [] => Some e
  | ev :: evs' => match env_step e ev with Some e' => env_evs e' evs' | None => None end
  end.

Lemma env_run_from_evs : forall ins e, env_run_from e ins = env_evs e (map fst ins).
Proof. induction ins as [|i ins IH]; intros e; cbn; auto. destruct (env_step e (fst i)); auto. Qed.

Lemma env_evs_untick : forall evs e, env_evs e (untick evs) = env_evs e evs.
Proof.
  induction evs as [|ev evs IH]; intros e; [reflexivity|].
  unfold untick. cbn [filter]. fold (untick evs).
  destruct ev; cbn [is_tick negb env_evs]; try (destruct (env_step e _); [apply IH|reflexivity]).
  cbn [env_step]. apply IH.
Qed.

Lemma env_evs_app : forall a b e,
  env_evs e (a ++ b) = match env_evs e a with Some e1 => env_evs e1 b | None => None end.
Proof. induction a as [|ev a IH]; intros b e; cbn; auto. destruct (env_step e ev); auto. Qed.

Lemma env_evs_wf : forall evs e e', env_wf e -> env_evs e evs = Some e' -> env_wf e'.
Proof.
  induction evs as [|ev evs IH]; intros e e' Hwf H; cbn in H; [injection H as <-; exact Hwf|].
  destruct (env_step e ev) as [e1|] eqn:Hs; [|discriminate].
  apply (IH e1); [apply (env_step_wf e ev); assumption|exact H].
Qed.

Fixpoint cnth (l : list N) (v : N) : N :=
  match l with
  | [] => 0
  | x :: l' => (if x =? v then 1 else 0) + cnth l' v
  end.

Lemma cnth_smem : forall l v, smem l v = true <-> 1 <= cnth l v.
Proof.
  induction l as [|x l IH]; intros v; cbn [smem cnth].
  - split; [discriminate|lia].
  - destruct (x =? v); cbn [orb].
    + split; [intros _; lia|reflexivity].
    + rewrite IH. lia.
Qed.

Lemma cnth_zero : forall l v, ~ In v l -> cnth l v = 0.
Proof.
  intros l v H. destruct (N.eq_dec (cnth l v) 0) as [|Hne]; auto.
  exfalso. apply H. apply smem_In. apply cnth_smem. lia.
Qed.

Lemma cnth_rem1_eq : forall l v, smem l v = true -> cnth (rem1 l v) v = cnth l v - 1.
Proof.
  induction l as [|x l IH]; intros v H; cbn [smem cnth rem1] in *; [discriminate|].
  destruct (x =? v) eqn:E; cbn [orb] in *.
  - lia.
  - cbn [cnth]. rewrite E. rewrite IH by exact H. apply cnth_smem in H. lia.
Qed.

Lemma cnth_rem1_neq : forall l v w, v <> w -> cnth (rem1 l v) w = cnth l w.
Proof.
  induction l as [|x l IH]; intros v w Hne; cbn [cnth rem1]; auto.
  destruct (x =? v) eqn:E.
  - apply N.eqb_eq in E. subst. destruct (v =? w) eqn:E2; [apply N.eqb_eq in E2; contradiction|]. lia.
  - cbn [cnth]. rewrite IH by exact Hne. reflexivity.
Qed.

Lemma rem1_In : forall l v w, In w (rem1 l v) -> In w l.
Proof.
  induction l as [|x l IH]; intros v w H; cbn in *; auto.
  destruct (x =? v); [right; exact H|]. destruct H as [H|H]; [left; exact H|right; apply (IH v w H)].
Qed.

Lemma env_ref_ok : forall e c rest files,
  e_chain e = c :: rest -> NoDup files -> settled (c :: rest) = true -> v_delta c = None ->
  (forall x, In x files -> ~ In x (v_files c) -> ~ In x (e_seen e)) ->
  env_step e (ERef (e_nid e) files) =
    Some {| e_nid := e_nid e + 1;
            e_chain := {| v_id := e_nid e; v_files := files; v_late := []; v_delta := None; v_rel := false |}
                       :: c :: rest;
            e_seen := ldiff files (v_files c) ++ e_seen e |}.
Proof.
  intros e c rest files Hch Hnd Hset Hdl Hfresh. cbn [env_step]. rewrite Hch, N.eqb_refl, Hset.
  apply nodupb_NoDup in Hnd. rewrite Hnd. cbn [andb]. unfold has_delta. rewrite Hdl. cbn [negb andb].
  assert (Hd : disjb (ldiff files (v_files c)) (e_seen e) = true).
  { apply disjb_spec. intros x Hx. apply ldiff_In in Hx. apply Hfresh; tauto. }
  rewrite Hd. reflexivity.
Qed.

Lemma env_delta_ok : forall e n c rest a d,
  e_chain e = n :: c :: rest -> v_delta c = None -> NoDup a -> NoDup d ->
  incl d (ldiff (v_files c) (v_late c)) -> incl (v_late c) a ->
  (forall x, In x (ldiff a (v_late c)) -> In x (v_files c) -> In x d) ->
  incl (ldiff (v_files c) d ++ ldiff a (v_late c)) (v_files n) ->
  (forall x, In x (ldiff (v_files n) (ldiff (v_files c) d ++ ldiff a (v_late c))) -> ~ In x (v_files c)) ->
  env_step e (EDelta (v_id c) a d) =
    Some {| e_nid := e_nid e;
            e_chain := set_late n (ldiff (v_files n) (ldiff (v_files c) d ++ ldiff a (v_late c)))
                       :: set_delta c {| d_added := a; d_deleted := d |} :: rest;
            e_seen := e_seen e |}.
Proof.
  intros e n c rest a d Hch Hdl Ha Hd Hdin Hlate Hmove Ht Hln. cbn [env_step]. rewrite Hch, N.eqb_refl.
  unfold has_delta. rewrite Hdl. cbn [negb andb].
  apply nodupb_NoDup in Ha. apply nodupb_NoDup in Hd. rewrite Ha, Hd. cbn [andb].
  apply inclb_incl in Hdin. apply inclb_incl in Hlate. rewrite Hdin, Hlate. cbn [andb].
  assert (H1 : disjb (ldiff a (v_late c)) (ldiff (v_files c) d) = true).
  { apply disjb_spec. intros x Hx Hy. apply ldiff_In in Hy. destruct Hy as [Hy Hnd]. apply Hnd. apply Hmove; auto. }
  rewrite H1. cbn [andb]. apply inclb_incl in Ht. rewrite Ht. cbn [andb].
  rewrite (proj2 (disjb_spec _ _) Hln). reflexivity.
Qed.

Lemma rel_in_ok : forall ch c, NoDup (map v_id ch) -> In c ch -> v_rel c = false -> has_delta c = true ->
  rel_in ch (v_id c) (v_files c) = Some (map (relmap (v_id c)) ch).
Proof.
  induction ch as [|x ch IH]; intros c Hnd Hin Hr Hd; [destruct Hin|].
  cbn [map] in Hnd. inversion Hnd as [|? ? Hni Hnd']; subst. cbn [rel_in map].
  destruct (v_id x =? v_id c) eqn:E.
  - apply N.eqb_eq in E. assert (x = c).
    { destruct Hin as [|Hin]; auto. exfalso. apply Hni. rewrite E. apply in_map. exact Hin. }
    subst x. rewrite Hr, Hd. cbn [negb andb]. rewrite (proj2 (leqb_eq _ _) eq_refl).
    unfold relmap at 1. rewrite N.eqb_refl. rewrite map_relmap_id; auto.
    intros y Hy He. apply Hni. rewrite <- He. apply in_map. exact Hy.
  - destruct Hin as [ -> |Hin]; [rewrite N.eqb_refl in E; discriminate|].
    rewrite (IH c Hnd' Hin Hr Hd). apply N.eqb_neq in E. rewrite (relmap_neq _ _ E). reflexivity.
Qed.

Lemma env_rel_ok : forall e c, NoDup (map v_id (e_chain e)) -> In c (e_chain e) -> v_rel c = false ->
  has_delta c = true ->
  env_step e (ERel (v_id c) (v_files c)) =
    Some {| e_nid := e_nid e; e_chain := map (relmap (v_id c)) (e_chain e); e_seen := e_seen e |}.
Proof. intros e c Hnd Hin Hr Hd. cbn [env_step]. rewrite (rel_in_ok _ c Hnd Hin Hr Hd). reflexivity. Qed.

Lemma env_abandon_ok : forall e c rest, e_chain e = c :: rest -> settled (c :: rest) = true ->
  env_step e (EAbandon (e_nid e)) = Some {| e_nid := e_nid e + 1; e_chain := e_chain e; e_seen := e_seen e |}.
Proof. intros e c rest Hch Hs. cbn [env_step]. rewrite N.eqb_refl. rewrite Hch at 1 2. rewrite Hs. reflexivity. Qed.

Lemma settled_rest : forall h rest, Forall (fun c => has_delta c = true) rest -> settled (h :: rest) = true.
Proof. intros h rest H. destruct rest as [|c rest]; [reflexivity|]. inversion H; subst. cbn. assumption. Qed.

(* what identifies a version on either side: its id and its tables *)
Definition vkey (o : vrec) : N * list N := (vr_id o, flat (vr_levels o)).
Definition ckey (c : ver) : N * list N := (v_id c, v_files c).

Record VInv (st : vstate) (g : ghost) (e : envst) : Prop := {
  vi_wf : env_wf e;
  vi_nid : e_nid e = vs_nvid st;
  vi_seen : e_seen e = g_seen g;
  vi_cur_ref : vr_ref (vs_cur st) = 1 + cnth (g_held g) (vr_id (vs_cur st));
  vi_cur_rel : vr_released (vs_cur st) = false;
  (* the replaced versions that are still referenced are, in this order, the unreleased versions
     below the head of the chain: both lists grow at the front and shrink in place *)
  vi_chain : exists h rest, e_chain e = h :: rest /\
      v_id h = vr_id (vs_cur st) /\ v_files h = flat (vr_levels (vs_cur st)) /\
      v_late h = (if vs_manifest st then [] else flat (vr_levels (vs_cur st))) /\
      Forall (fun c => has_delta c = true) rest /\
      map vkey (vs_olds st) = map ckey (filter (fun c => negb (v_rel c)) rest);
  vi_olds_ref : forall o, In o (vs_olds st) -> vr_ref o = cnth (g_held g) (vr_id o) /\ 1 <= vr_ref o;
  vi_held : forall v, In v (g_held g) -> v = vr_id (vs_cur st) \/ exists o, In o (vs_olds st) /\ vr_id o = v }.

Lemma vinv_old_ver : forall st g e o, VInv st g e -> In o (vs_olds st) ->
  exists c, In c (e_chain e) /\ v_rel c = false /\ ckey c = vkey o /\ v_id c < vr_id (vs_cur st).
Proof.
  intros st g e o HI Ho. destruct (vi_chain _ _ _ HI) as (h & rest & Hch & Hid & _ & _ & _ & Hk).
  destruct (map_eq_In _ _ _ _ o Hk Ho) as (c & Hc & Hck). apply filter_In in Hc. destruct Hc as [Hc Hr].
  exists c. rewrite Hch. split; [right; exact Hc|]. split; [apply negb_true_iff; exact Hr|]. split; [exact Hck|].
  rewrite <- Hid. destruct (vi_wf _ _ _ HI) as (Hcw & _). rewrite Hch in Hcw. apply (chain_wf_head_lt h rest Hcw c Hc).
Qed.

Lemma vinv_old_not_cur : forall st g e o, VInv st g e -> In o (vs_olds st) -> vr_id o <> vr_id (vs_cur st).
Proof.
  intros st g e o HI Ho. destruct (vinv_old_ver st g e o HI Ho) as (c & _ & _ & Hk & Hlt). injection Hk as Hid _. lia.
Qed.

Lemma vinv_cur_lt : forall st g e, VInv st g e -> vr_id (vs_cur st) < vs_nvid st.
Proof.
  intros st g e HI. rewrite <- (vi_nid _ _ _ HI). destruct (vi_wf _ _ _ HI) as (_ & _ & Hids & _).
  destruct (vi_chain _ _ _ HI) as (h & rest & Hch & <- & _). apply Hids. rewrite Hch. left. reflexivity.
Qed.

Lemma vinv_held_lt : forall st g e v, VInv st g e -> In v (g_held g) -> v < vs_nvid st.
Proof.
  intros st g e v HI Hv. destruct (vi_held _ _ _ HI v Hv) as [ -> |(o & Ho & <-)]; [apply (vinv_cur_lt st g e HI)|].
  destruct (vinv_old_ver st g e o HI Ho) as (c & _ & _ & Hk & Hlt). injection Hk as <- _.
  pose proof (vinv_cur_lt st g e HI). lia.
Qed.

Definition same_cur (st st' : vstate) : Prop :=
  vr_levels (vs_cur st') = vr_levels (vs_cur st) /\ vr_id (vs_cur st') = vr_id (vs_cur st) /\
  vs_manifest st' = vs_manifest st /\ vs_nvid st' = vs_nvid st.

Lemma acquire_sim : forall st g e, VInv st g e ->
  exists st', acquire st = VOk (st', []) /\
    VInv st' {| g_held := vr_id (vs_cur st) :: g_held g; g_seen := g_seen g |} e /\ same_cur st st'.
Proof.
  intros st g e HI. unfold acquire, incref. rewrite (vi_cur_rel _ _ _ HI).
  assert (Hz : (vr_ref (vs_cur st) =? 0) = false) by (apply N.eqb_neq; rewrite (vi_cur_ref _ _ _ HI); lia).
  rewrite Hz. eexists. split; [reflexivity|]. split; [|repeat split].
  pose proof (vinv_old_not_cur st g e) as Hne. specialize (fun o => Hne o HI).
  destruct HI as [Hwf H1 H2 H5 H6 H9 H10 H12].
  constructor; cbn [set_cur set_ref vs_cur vs_olds vs_nvid vs_manifest vr_id vr_levels vr_ref vr_released g_held g_seen]; auto.
  - cbn [cnth]. rewrite N.eqb_refl. rewrite H5. lia.
  - intros o Ho. destruct (H10 o Ho) as [Hr Hp]. split; auto. cbn [cnth].
    destruct (vr_id (vs_cur st) =? vr_id o) eqn:E; [apply N.eqb_eq in E; exfalso; apply (Hne o Ho); auto|]. rewrite Hr. lia.
  - intros v [ <- |Hv]; [left; reflexivity|apply H12; exact Hv].
Qed.

Lemma release_old_spec : forall olds v o,
  NoDup (map vr_id olds) -> In o olds -> vr_id o = v -> 1 <= vr_ref o ->
  release_old olds v =
    if vr_ref o =? 1 then VOk (filter (fun x => negb (vr_id x =? v)) olds, [ERel v (flat (vr_levels o))])
    else VOk (map (fun x => if vr_id x =? v then set_ref x (vr_ref x - 1) (vr_released x) else x) olds, []).
Proof.
  induction olds as [|x olds IH]; intros v o Hnd Hin Hid Hpos; [destruct Hin|].
  cbn [map] in Hnd. inversion Hnd as [|? ? Hni Hnd']; subst. cbn [release_old filter map].
  destruct (vr_id x =? vr_id o) eqn:E.
  - apply N.eqb_eq in E. assert (x = o).
    { destruct Hin as [|Hin]; auto. exfalso. apply Hni. rewrite E. apply in_map. exact Hin. }
    subst x. assert (Hrest : forall y, In y olds -> (vr_id y =? vr_id o) = false).
    { intros y Hy. apply N.eqb_neq. intros He. apply Hni. rewrite <- He. apply in_map. exact Hy. }
    rewrite ListLemmas.filter_all by (intros y Hy; rewrite (Hrest y Hy); reflexivity).
    rewrite (map_ext_in _ (fun y => y)), map_id by (intros y Hy; rewrite (Hrest y Hy); reflexivity).
    unfold releaseNB. rewrite (proj2 (N.eqb_neq _ 0)) by lia. cbn [negb].
    destruct (vr_ref o =? 1) eqn:E1; cbn [set_ref vr_ref]; [reflexivity|].
    apply N.eqb_neq in E1. rewrite (proj2 (N.eqb_neq _ 0)) by lia. reflexivity.
  - destruct Hin as [ -> |Hin]; [rewrite N.eqb_refl in E; discriminate|].
    rewrite (IH (vr_id o) o Hnd' Hin eq_refl Hpos). cbn [negb]. destruct (vr_ref o =? 1); reflexivity.
Qed.

Lemma relmap_has_delta : forall v x, has_delta (relmap v x) = has_delta x.
Proof. intros. unfold has_delta. rewrite relmap_delta. reflexivity. Qed.

Lemma release_sim : forall st g e v, VInv st g e -> smem (g_held g) v = true ->
  exists st' evs e', release st v = VOk (st', evs) /\ env_evs e evs = Some e' /\
    VInv st' {| g_held := rem1 (g_held g) v; g_seen := g_seen g |} e' /\ same_cur st st'.
Proof.
  intros st g e v HI Hv.
  pose proof (vinv_old_not_cur st g e) as Hne. specialize (fun o => Hne o HI).
  pose proof (proj1 (cnth_smem _ _) Hv) as Hcv.
  destruct HI as [Hwf H1 H2 H5 H6 H9 H10 H12].
  unfold release. destruct (vr_id (vs_cur st) =? v) eqn:E.
  - (* a reader's reference on the current version *)
    apply N.eqb_eq in E. subst v. unfold releaseNB.
    assert (Hz : (vr_ref (vs_cur st) =? 0) = false) by (apply N.eqb_neq; lia).
    assert (Hz1 : (vr_ref (vs_cur st) =? 1) = false) by (apply N.eqb_neq; lia).
    rewrite Hz, Hz1. eexists _, [], e. split; [reflexivity|]. split; [reflexivity|]. split; [|repeat split].
    constructor; cbn [set_cur set_ref vs_cur vs_olds vs_nvid vs_manifest vr_id vr_levels vr_ref vr_released g_held g_seen]; auto.
    + rewrite cnth_rem1_eq by exact Hv. lia.
    + intros o Ho. destruct (H10 o Ho) as [Hr Hp]. split; auto.
      rewrite cnth_rem1_neq; [exact Hr|]. intros He. apply (Hne o Ho). auto.
    + intros w Hw. apply H12. apply (rem1_In _ _ _ Hw).
  - (* a reference on a replaced version *)
    apply N.eqb_neq in E.
    destruct (H12 v (proj1 (smem_In _ _) Hv)) as [->|(o & Ho & Hoid)]; [congruence|].
    destruct (H10 o Ho) as [Hor Hop].
    destruct H9 as (h & rest & Hch & Hid & Hfiles & Hlate & Hfa & Hk).
    pose proof (chain_ids_nodup _ (proj1 Hwf)) as Hndc.
    assert (Hnd : NoDup (map vr_id (vs_olds st))).
    { replace (map vr_id (vs_olds st)) with (map fst (map vkey (vs_olds st))) by (rewrite map_map; reflexivity).
      rewrite Hk, map_map. apply ListLemmas.NoDup_map_filter. rewrite Hch in Hndc. inversion Hndc; assumption. }
    rewrite (release_old_spec (vs_olds st) v o Hnd Ho Hoid Hop).
    destruct (map_eq_In _ _ _ _ o Hk Ho) as (c & Hc & Hck). apply filter_In in Hc. destruct Hc as [Hc Hcrel].
    apply negb_true_iff in Hcrel. injection Hck as Hcid Hcfiles. rewrite Hoid in Hcid.
    destruct (vr_ref o =? 1) eqn:Href1.
    + (* the last reference: the release task is sent *)
      assert (Hcd : has_delta c = true) by (rewrite Forall_forall in Hfa; apply Hfa; exact Hc).
      assert (Hcin : In c (e_chain e)) by (rewrite Hch; right; exact Hc).
      pose proof (env_rel_ok e c Hndc Hcin Hcrel Hcd) as Hstep. rewrite Hcid, Hcfiles in Hstep.
      eexists _, _, _. split; [reflexivity|]. split; [cbn [env_evs]; rewrite Hstep; reflexivity|].
      split; [|repeat split].
      assert (Hhne : v_id h <> v) by (rewrite Hid; exact E).
      constructor; cbn [vs_cur vs_olds vs_nvid vs_manifest g_held g_seen e_nid e_chain e_seen]; auto.
      * apply (env_step_wf _ _ _ Hwf Hstep).
      * rewrite cnth_rem1_neq by (intros He; apply E; auto). exact H5.
      * exists h, (map (relmap v) rest). rewrite Hch. cbn [map]. rewrite (relmap_neq _ _ Hhne).
        split; [reflexivity|]. repeat (split; [assumption|]). split.
        -- rewrite Forall_map. eapply Forall_impl; [|exact Hfa]. intros x. rewrite relmap_has_delta. auto.
        -- rewrite filter_relmap, (map_filter_comm vkey _ (fun k => negb (fst k =? v))) by reflexivity.
           rewrite (map_filter_comm ckey _ (fun k => negb (fst k =? v))) by reflexivity. rewrite Hk. reflexivity.
      * intros o1 Ho1. apply filter_In in Ho1. destruct Ho1 as [Ho1 Hn1]. apply negb_true_iff, N.eqb_neq in Hn1.
        destruct (H10 o1 Ho1) as [Hr1 Hp1]. split; auto. rewrite cnth_rem1_neq by auto. exact Hr1.
      * intros w Hw. pose proof (rem1_In _ _ _ Hw) as Hw'. destruct (H12 w Hw') as [->|(ow & How & Howid)]; [left; reflexivity|].
        right. exists ow. split; [|exact Howid]. apply filter_In. split; [exact How|]. apply negb_true_iff, N.eqb_neq.
        intros He. subst w. apply smem_In, cnth_smem in Hw.
        rewrite He, cnth_rem1_eq in Hw by exact Hv. apply N.eqb_eq in Href1. rewrite <- Hoid, <- Hor in Hw. lia.
    + (* other references remain *)
      apply N.eqb_neq in Href1.
      eexists _, [], e. split; [reflexivity|]. split; [reflexivity|]. split; [|repeat split].
      constructor; cbn [vs_cur vs_olds vs_nvid vs_manifest g_held g_seen]; auto.
      * rewrite cnth_rem1_neq by (intros He; apply E; auto). exact H5.
      * exists h, rest. split; [exact Hch|]. repeat (split; [assumption|]).
        rewrite map_map, <- Hk. apply map_ext. intros x. destruct (vr_id x =? v); reflexivity.
      * intros o1 Ho1. apply in_map_iff in Ho1. destruct Ho1 as (x & <- & Hx). destruct (H10 x Hx) as [Hr Hp].
        destruct (vr_id x =? v) eqn:Ex.
        -- apply N.eqb_eq in Ex. cbn [set_ref vr_ref vr_id]. rewrite Ex, cnth_rem1_eq by exact Hv.
           rewrite Ex in Hr. rewrite <- Hoid, <- Hor in Hr |- *. lia.
        -- apply N.eqb_neq in Ex. split; auto. rewrite cnth_rem1_neq by auto. exact Hr.
      * intros w Hw. pose proof (rem1_In _ _ _ Hw) as Hw'. destruct (H12 w Hw') as [->|(ow & How & Howid)]; [left; reflexivity|].
        right. eexists. split; [apply in_map; exact How|]. destruct (vr_id ow =? v); exact Howid.
Qed.

(* [mid_state]: setVersion after its two sends — nv is current, with the session's reference, and the
   version it replaces stands first among the replaced ones.  The release of the replaced version at the end
   of setVersion is the release of one more reference (the session's own) on a version that is no longer
   current. *)
Definition mid_state (st : vstate) (nv : vrec) (m : bool) : vstate :=
  {| vs_cur := set_ref nv (vr_ref nv + 1) false; vs_olds := vs_cur st :: vs_olds st;
     vs_nvid := vs_nvid st; vs_manifest := m |}.

Lemma set_version_release : forall st r nv m,
  vr_released nv = false -> vr_ref nv = 0 -> vr_id nv <> vr_id (vs_cur st) ->
  match release (mid_state st nv m) (vr_id (vs_cur st)) with
  | VOk (st3, ev3) =>
      exists st2, set_version st r nv =
        VOk (st2, [ERef (vr_id nv) (flat (vr_levels nv))]
                  ++ [EDelta (vr_id (vs_cur st)) (added_nums r) (deleted_nums r)] ++ ev3) /\
        st3 = {| vs_cur := vs_cur st2; vs_olds := vs_olds st2; vs_nvid := vs_nvid st2; vs_manifest := m |} /\
        vs_manifest st2 = vs_manifest st
  | VPanic _ => True
  end.
Proof.
  intros st r nv m Hrel Href Hne. unfold release, mid_state.
  cbn [vs_cur vs_olds vs_nvid vs_manifest set_ref vr_id].
  rewrite (proj2 (N.eqb_neq _ _) Hne). cbn [release_old]. rewrite N.eqb_refl.
  unfold set_version, incref. rewrite Hrel, Href. cbn [N.eqb].
  destruct (releaseNB (vs_cur st)) as [[c1 ev3]|q]; [|exact I].
  eexists. split; [reflexivity|]. cbn [vs_cur vs_olds vs_nvid vs_manifest]. split; reflexivity.
Qed.

Lemma rec_ok_parts : forall st g r, rec_ok st g r = true ->
  NoDup (added_nums r) /\ NoDup (deleted_nums r) /\
  (forall l n, In (l, n) (r_deleted r) -> In n (lnums (vr_levels (vs_cur st)) (N.to_nat l))) /\
  (forall n, In n (added_nums r) -> In n (deleted_nums r) \/ ~ In n (g_seen g)) /\
  (vs_manifest st = true \/ r_deleted r = []).
Proof.
  intros st g r H. unfold rec_ok in H. repeat (apply andb_true_iff in H; destruct H as [H ?]).
  split; [apply nodupb_NoDup; assumption|]. split; [apply nodupb_NoDup; assumption|]. split; [|split].
  - intros l n Hin. rewrite forallb_forall in H2. specialize (H2 (l, n) Hin). cbn [fst snd] in H2.
    apply tmem_In in H2. exact H2.
  - intros n Hn. rewrite forallb_forall in H1. specialize (H1 n Hn). apply orb_true_iff in H1.
    destruct H1 as [H1|H1]; [left; apply smem_In; exact H1|right]. apply negb_true_iff in H1. apply smem_nIn. exact H1.
  - apply orb_true_iff in H0. destruct H0 as [H0|H0]; [left; exact H0|right]. destruct (r_deleted r); [reflexivity|discriminate].
Qed.

Lemma deleted_in_flat : forall (base : levels) (r : srec),
  (forall l n, In (l, n) (r_deleted r) -> In n (lnums base (N.to_nat l))) ->
  forall n, In n (deleted_nums r) -> In n (flat base).
Proof.
  intros base r H n Hn. unfold deleted_nums in Hn. apply in_map_iff in Hn. destruct Hn as ([l m] & He & Hin).
  cbn in He. subst m. apply In_flat. exists (N.to_nat l). apply H. exact Hin.
Qed.

(* the two sends of setVersion in session.commit: the reference of the new version, then the delta *)
Lemma install_mid : forall st g e r t,
  VInv st g e -> rec_ok st g r = true ->
  let base := vr_levels (vs_cur st) in
  let lv := spawn base r t in
  let r' := if vs_manifest st then r else fill_record r lv in
  let nv := {| vr_id := vs_nvid st; vr_levels := lv; vr_ref := 0; vr_released := false |} in
  let st1 := {| vs_cur := vs_cur st; vs_olds := vs_olds st; vs_nvid := vs_nvid st + 1; vs_manifest := vs_manifest st |} in
  exists e2,
    env_evs e [ERef (vs_nvid st) (flat lv); EDelta (vr_id (vs_cur st)) (added_nums r') (deleted_nums r')] = Some e2 /\
    VInv (mid_state st1 nv true)
         {| g_held := vr_id (vs_cur st) :: g_held g; g_seen := ldiff (flat lv) (flat base) ++ g_seen g |} e2.
Proof.
  intros st g e r t HI Hrec base lv r' nv st1.
  destruct (rec_ok_parts _ _ _ Hrec) as (Hna & Hnd & Hdel & Hadd & Hman).
  pose proof (vinv_old_not_cur st g e) as Hne. specialize (fun o => Hne o HI).
  pose proof (vinv_held_lt st g e) as Hheld_lt. specialize (fun v => Hheld_lt v HI).
  pose proof (vinv_cur_lt st g e HI) as Hcid_lt.
  destruct HI as [Hwf H1 H2 H5 H6 H9 H10 H12].
  destruct H9 as (h & rest & Hch & Hid & Hfiles & Hlate & Hfa & Hk).
  pose proof Hwf as (Hcw & Hhd & Hids & Hseen & Hnds). rewrite Hch in Hcw, Hhd.
  destruct (head_nodelta _ _ Hhd) as [Hhdl Hhrel].
  fold base in Hfiles, Hlate, Hdel.
  assert (H4 : NoDup (flat base)) by (rewrite <- Hfiles; apply Hcw).
  assert (H3 : incl (flat base) (g_seen g)) by (rewrite <- Hfiles, <- H2; apply Hseen; rewrite Hch; left; reflexivity).
  assert (Hdflat : forall n, In n (deleted_nums r) -> In n (flat base)) by (apply deleted_in_flat; exact Hdel).
  assert (Hadd' : forall n, In n (added_nums r) -> In n (deleted_nums r) \/ ~ In n (flat base)).
  { intros n Hn. destruct (Hadd n Hn) as [Hd|Hs]; [left; exact Hd|right]. intros Hb. apply Hs. apply H3. exact Hb. }
  pose proof (spawn_In base r t H4 Hdel) as Hsp.
  pose proof (spawn_NoDup base r t H4 Hna Hdel Hadd') as Hspnd.
  fold lv in Hsp, Hspnd.
  (* first send, ERef: the tables of the new version that the current one lacks were never seen *)
  assert (Hfresh : forall x, In x (flat lv) -> ~ In x (v_files h) -> ~ In x (e_seen e)).
  { intros x Hx Hnb. rewrite Hfiles in Hnb. rewrite H2. apply Hsp in Hx. destruct Hx as [[Hb _]|Ha]; [contradiction|].
    destruct (Hadd x Ha) as [Hd|Hs]; [exfalso; apply Hnb; apply Hdflat; exact Hd|exact Hs]. }
  pose proof (env_ref_ok e h rest (flat lv) Hch Hspnd (settled_rest h rest Hfa) Hhdl Hfresh) as Hstep1.
  set (n0 := {| v_id := e_nid e; v_files := flat lv; v_late := []; v_delta := None; v_rel := false |}) in *.
  set (e1 := {| e_nid := e_nid e + 1; e_chain := n0 :: h :: rest;
                e_seen := ldiff (flat lv) (v_files h) ++ e_seen e |}) in *.
  (* second send, EDelta: Hconds are the checks of env_step; its last two conjuncts say that T is flat lv as
     a set, hence the new version has no table the delta does not account for (HLN) *)
  set (a' := added_nums r'). set (d' := deleted_nums r').
  set (T := ldiff (v_files h) d' ++ ldiff a' (v_late h)).
  assert (Hconds : NoDup a' /\ NoDup d' /\ incl d' (ldiff (v_files h) (v_late h)) /\ incl (v_late h) a' /\
                   (forall x, In x (ldiff a' (v_late h)) -> In x (v_files h) -> In x d') /\
                   incl T (flat lv) /\ incl (flat lv) T).
  { unfold T, a', d', r'. destruct (vs_manifest st) eqn:Hm.
    - (* the session has a manifest writer: the record as given *)
      rewrite Hlate, Hfiles, !ldiff_nil_r.
      split; [exact Hna|]. split; [exact Hnd|]. split; [|split; [|split; [|split]]].
      + intros x Hx. apply Hdflat. exact Hx.
      + intros x [].
      + intros x Ha Hb. destruct (Hadd' x Ha); [assumption|contradiction].
      + intros x Hx. apply in_app_or in Hx. apply Hsp. destruct Hx as [Hx|Hx]; [left; apply ldiff_In in Hx; exact Hx|right; exact Hx].
      + intros x Hx. apply in_or_app. apply Hsp in Hx. destruct Hx as [Hx|Hx]; [left; apply ldiff_In; exact Hx|right; exact Hx].
    - (* first commit of a recovered session: fillRecord extends the record *)
      destruct Hman as [Hman|Hman]; [discriminate|].
      assert (Hd0 : deleted_nums r = []) by (unfold deleted_nums; rewrite Hman; reflexivity).
      rewrite fill_record_deleted, fill_record_added, Hd0, Hlate, Hfiles. rewrite Hd0 in Hsp.
      assert (Hb_lv : forall x, In x (flat base) -> In x (flat lv)) by (intros x Hx; apply Hsp; left; split; [exact Hx|intros []]).
      assert (Ha_lv : forall x, In x (added_nums r ++ ldiff (flat lv) (added_nums r)) -> In x (flat lv)).
      { intros x Hx. apply in_app_or in Hx. destruct Hx as [Hx|Hx]; [apply Hsp; right; exact Hx|apply ldiff_In in Hx; apply Hx]. }
      assert (Hlv_a : forall x, In x (flat lv) -> In x (added_nums r ++ ldiff (flat lv) (added_nums r))).
      { intros x Hx. apply in_or_app. destruct (in_dec N.eq_dec x (added_nums r)) as [Hi|Hn]; [left; exact Hi|right; apply ldiff_In; split; assumption]. }
      split; [|split; [|split; [|split; [|split; [|split]]]]].
      + apply ListLemmas.NoDup_app_iff. split; [exact Hna|]. split; [apply ldiff_NoDup; exact Hspnd|].
        intros x Hx Hy. apply ldiff_In in Hy. destruct Hy as [_ Hy]. contradiction.
      + constructor.
      + intros x [].
      + intros x Hx. apply Hlv_a. apply Hb_lv. exact Hx.
      + intros x Hx Hb. apply ldiff_In in Hx. destruct Hx as [_ Hx]. contradiction.
      + intros x Hx. apply in_app_or in Hx. destruct Hx as [Hx|Hx].
        * apply ldiff_In in Hx. apply Hb_lv. apply Hx.
        * apply ldiff_In in Hx. apply Ha_lv. apply Hx.
      + intros x Hx. apply in_or_app. destruct (in_dec N.eq_dec x (flat base)) as [Hi|Hn].
        * left. apply ldiff_In. split; [exact Hi|intros []].
        * right. apply ldiff_In. split; [apply Hlv_a; exact Hx|exact Hn]. }
  destruct Hconds as (Hc1 & Hc2 & Hc3 & Hc4 & Hc5 & Hc6 & Hc7).
  assert (Hstep2 : env_step e1 (EDelta (v_id h) a' d') =
                   Some {| e_nid := e_nid e1;
                           e_chain := set_late n0 (ldiff (v_files n0) T)
                                      :: set_delta h {| d_added := a'; d_deleted := d' |} :: rest;
                           e_seen := e_seen e1 |}).
  { apply (env_delta_ok e1 n0 h rest a' d'); auto.
    intros x Hx. apply ldiff_In in Hx. destruct Hx as [Hx Hnt]. exfalso. apply Hnt. apply Hc7. exact Hx. }
  assert (HLN : ldiff (v_files n0) T = []) by (apply ldiff_incl_nil; exact Hc7).
  rewrite HLN in Hstep2.
  eexists. split.
  { cbn [env_evs]. rewrite <- H1, Hstep1. rewrite <- Hid, Hstep2. reflexivity. }
  constructor; cbn [mid_state st1 nv set_ref vs_cur vs_olds vs_nvid vs_manifest vr_id vr_levels vr_ref vr_released
                    g_held g_seen e1 e_nid e_chain e_seen].
  - apply (env_step_wf _ _ _ (env_step_wf _ _ _ Hwf Hstep1) Hstep2).
  - rewrite H1. reflexivity.
  - rewrite Hfiles, H2. reflexivity.
  - cbn [cnth]. destruct (vr_id (vs_cur st) =? vs_nvid st) eqn:E; [apply N.eqb_eq in E; lia|].
    rewrite cnth_zero; [reflexivity|]. intros Hv. apply Hheld_lt in Hv. lia.
  - reflexivity.
  - eexists _, _. split; [reflexivity|]. cbn [set_late set_delta v_id v_files v_rel v_delta v_late n0 filter map].
    split; [exact H1|]. repeat (split; [reflexivity|]). split.
    + constructor; [reflexivity|exact Hfa].
    + rewrite Hhrel. cbn [negb map]. unfold ckey at 1, vkey at 1. cbn [set_delta v_id v_files]. rewrite Hid, Hfiles, Hk. reflexivity.
  - intros o [ <- |Ho].
    + cbn [cnth]. rewrite N.eqb_refl. rewrite H5. split; lia.
    + destruct (H10 o Ho) as [Hr Hp]. split; auto. cbn [cnth].
      destruct (vr_id (vs_cur st) =? vr_id o) eqn:E; [apply N.eqb_eq in E; exfalso; apply (Hne o Ho); auto|]. rewrite Hr. lia.
  - intros v [ <- |Hv].
    + right. exists (vs_cur st). split; [left; reflexivity|reflexivity].
    + destruct (H12 v Hv) as [->|(o & Ho & Hoid)].
      * right. exists (vs_cur st). split; [left; reflexivity|reflexivity].
      * right. exists o. split; [right; exact Ho|exact Hoid].
Qed.

Lemma abandon_sim : forall st g e, VInv st g e ->
  exists e', env_evs e [EAbandon (vs_nvid st)] = Some e' /\
    VInv {| vs_cur := vs_cur st; vs_olds := vs_olds st; vs_nvid := vs_nvid st + 1; vs_manifest := vs_manifest st |}
         {| g_held := g_held g; g_seen := g_seen g |} e'.
Proof.
  intros st g e [Hwf H1 H2 H5 H6 H9 H10 H12].
  destruct H9 as (h & rest & Hch & Hid & Hfiles & Hlate & Hfa & Hk).
  pose proof (env_abandon_ok e h rest Hch (settled_rest h rest Hfa)) as Hstep.
  eexists. split; [cbn [env_evs]; rewrite <- H1, Hstep; reflexivity|].
  constructor; cbn [vs_cur vs_olds vs_nvid vs_manifest g_held g_seen e_nid e_chain e_seen]; auto.
  - apply (env_step_wf _ _ _ Hwf Hstep).
  - rewrite H1. reflexivity.
  - exists h, rest. repeat (split; [assumption|]). assumption.
Qed.

Lemma install_sim : forall st g e r t oc,
  VInv st g e -> install_ok st g r oc = true ->
  exists st' evs e', install st r t oc = VOk (st', evs) /\ env_evs e evs = Some e' /\
    VInv st' {| g_held := g_held g; g_seen := seen_after st g r t oc |} e'.
Proof.
  intros st g e r t oc HI Hok. unfold install_ok in Hok. apply andb_true_iff in Hok. destruct Hok as [Hrec Hoc].
  destruct oc.
  - (* the commit succeeds: setVersion *)
    destruct (install_mid st g e r t HI Hrec) as (e2 & Hev2 & HI2).
    set (base := vr_levels (vs_cur st)) in *. set (lv := spawn base r t) in *.
    set (r' := if vs_manifest st then r else fill_record r lv) in *.
    set (nv := {| vr_id := vs_nvid st; vr_levels := lv; vr_ref := 0; vr_released := false |}) in *.
    set (st1 := {| vs_cur := vs_cur st; vs_olds := vs_olds st; vs_nvid := vs_nvid st + 1; vs_manifest := vs_manifest st |}) in *.
    pose proof (vinv_cur_lt st g e HI) as Hcid_lt.
    destruct (release_sim (mid_state st1 nv true) _ e2 (vr_id (vs_cur st)) HI2) as (st3 & ev3 & e3 & Hr3 & He3 & HI3 & _).
    { cbn [g_held smem]. rewrite N.eqb_refl. reflexivity. }
    cbn [g_held g_seen rem1] in HI3. rewrite N.eqb_refl in HI3.
    assert (Hne3 : vr_id nv <> vr_id (vs_cur st1)) by (cbn; lia).
    pose proof (set_version_release st1 r' nv true eq_refl eq_refl Hne3) as Hsv.
    change (vs_cur st1) with (vs_cur st) in Hsv. rewrite Hr3 in Hsv.
    destruct Hsv as (st2 & Hset & Hst3 & _).
    exists st3, ([ERef (vs_nvid st) (flat lv)] ++ [EDelta (vr_id (vs_cur st)) (added_nums r') (deleted_nums r')] ++ ev3), e3.
    split; [|split].
    + unfold install. fold base lv st1 r' nv. rewrite Hset. rewrite Hst3. reflexivity.
    + change ([ERef (vs_nvid st) (flat lv)] ++ [EDelta (vr_id (vs_cur st)) (added_nums r') (deleted_nums r')] ++ ev3)
        with ([ERef (vs_nvid st) (flat lv); EDelta (vr_id (vs_cur st)) (added_nums r') (deleted_nums r')] ++ ev3).
      rewrite env_evs_app, Hev2. exact He3.
    + exact HI3.
  - destruct (abandon_sim st g e HI) as (e' & He & HI'). eexists _, _, _. split; [reflexivity|]. split; [exact He|exact HI'].
  - (* after newManifest switched: only with a manifest writer already there *)
    destruct (abandon_sim st g e HI) as (e' & He & HI'). destruct (vs_manifest st); [|discriminate].
    eexists _, _, _. split; [reflexivity|]. split; [exact He|exact HI'].
Qed.

Lemma commit_sim : forall st g e r t oc,
  VInv st g e -> install_ok st g r oc = true ->
  exists st' evs e', commit st r t oc = VOk (st', evs) /\ env_evs e evs = Some e' /\
    VInv st' {| g_held := g_held g; g_seen := seen_after st g r t oc |} e'.
Proof.
  intros st g e r t oc HI Hok.
  destruct (acquire_sim st g e HI) as (st1 & Ha & HI1 & (Hlv & Hid & Hm & Hn)).
  assert (Hok1 : install_ok st1 {| g_held := vr_id (vs_cur st) :: g_held g; g_seen := g_seen g |} r oc = true).
  { unfold install_ok, rec_ok in *. cbn [g_seen]. rewrite Hlv, Hm. exact Hok. }
  destruct (install_sim st1 _ e r t oc HI1 Hok1) as (st2 & ev2 & e2 & Hi & He2 & HI2).
  cbn [g_held g_seen] in HI2.
  destruct (release_sim st2 _ e2 (vr_id (vs_cur st)) HI2) as (st3 & ev3 & e3 & Hr & He3 & HI3 & _).
  { cbn [g_held smem]. rewrite N.eqb_refl. reflexivity. }
  cbn [g_held g_seen rem1] in HI3. rewrite N.eqb_refl in HI3.
  exists st3, ([] ++ ev2 ++ ev3), e3. split; [|split].
  - unfold commit. rewrite Ha, Hi, Hr. reflexivity.
  - cbn [app]. rewrite env_evs_app, He2. exact He3.
  - assert (Hs : seen_after st1 {| g_held := vr_id (vs_cur st) :: g_held g; g_seen := g_seen g |} r t oc
                 = seen_after st g r t oc).
    { unfold seen_after. cbn [g_seen]. rewrite Hlv. reflexivity. }
    rewrite <- Hs. exact HI3.
Qed.

Lemma step_sim : forall st g e op, VInv st g e -> disc_op st g op = true ->
  exists st' evs e', vl_step st op = VOk (st', evs) /\ env_evs e evs = Some e' /\
    VInv st' (ghost_step st g op) e'.
Proof.
  intros st g e op HI Hd. destruct op as [|v|r t oc|r t oc]; cbn [vl_step ghost_step disc_op] in *.
  - destruct (acquire_sim st g e HI) as (st1 & Ha & HI1 & _). exists st1, [], e. auto.
  - destruct (release_sim st g e v HI Hd) as (st1 & evs & e1 & Hr & He & HI1 & _). exists st1, evs, e1. auto.
  - apply install_sim; assumption.
  - apply commit_sim; assumption.
Qed.

Lemma run_sim : forall ops st g e, VInv st g e -> disc_from st g ops = true ->
  exists st' evs e', vl_run_from st ops = VOk (st', evs) /\ env_evs e evs = Some e' /\
    VInv st' (ghost_from st g ops) e'.
Proof.
  induction ops as [|op ops IH]; intros st g e HI Hd; cbn [vl_run_from disc_from ghost_from] in *.
  - exists st, [], e. auto.
  - apply andb_true_iff in Hd. destruct Hd as [Hop Hd].
    destruct (step_sim st g e op HI Hop) as (st1 & ev1 & e1 & Hs & He1 & HI1). rewrite Hs in *.
    destruct (IH st1 _ e1 HI1 Hd) as (st2 & ev2 & e2 & Hr & He2 & HI2). rewrite Hr.
    exists st2, (ev1 ++ ev2), e2. split; [reflexivity|]. split; [|exact HI2].
    rewrite env_evs_app, He1. exact He2.
Qed.

Lemma start_sim : forall o st0 ev0,
  vl_start o = VOk (st0, ev0) -> nodupb (flat (vr_levels (vs_cur st0))) = true ->
  exists e0, env_evs env_init ev0 = Some e0 /\ VInv st0 (ghost_start st0) e0.
Proof.
  intros o st0 ev0 Hs Hnd. destruct o as [|recs].
  - cbn in Hs. inversion Hs; subst; clear Hs. eexists. split; [reflexivity|].
    constructor; cbn [vs_cur vs_olds vs_nvid vs_manifest vr_id vr_levels vr_ref vr_released ghost_start
                      g_held g_seen e_nid e_chain e_seen cnth flat flat_map]; try reflexivity.
    + apply (env_step_wf env_init (ERef 0 [])); [exact env_init_wf|reflexivity].
    + eexists _, []. split; [reflexivity|]. cbn. repeat (split; [reflexivity|]). split; [constructor|reflexivity].
    + intros o [].
    + intros v [].
  - set (R := recovered_levels recs) in *.
    assert (Hst : st0 = {| vs_cur := {| vr_id := 1; vr_levels := R; vr_ref := 1; vr_released := false |};
                           vs_olds := []; vs_nvid := 2; vs_manifest := false |} /\
                  ev0 = [ERef 0 []; ERef 1 (flat R); EDelta 0 [] []; ERel 0 []]).
    { cbn in Hs. fold R in Hs. inversion Hs; subst. split; reflexivity. }
    destruct Hst as [-> ->]. cbn [vs_cur vr_levels] in Hnd.
    (* the protocol checker runs on the four events; only the tables of the recovered version are symbolic *)
    assert (Hd : forall l, disjb l [] = true) by (intros l; apply disjb_spec; intros x _ []).
    assert (Ht : forall l : list N, forallb (fun _ => true) l = true) by (induction l; auto).
    assert (He : exists e0, env_evs env_init [ERef 0 []; ERef 1 (flat R); EDelta 0 [] []; ERel 0 []] = Some e0 /\
              e_nid e0 = 2 /\ e_seen e0 = flat R /\
              exists h c, e_chain e0 = [h; c] /\ v_id h = 1 /\ v_files h = flat R /\ v_late h = flat R /\
                has_delta c = true /\ v_rel c = true).
    { eexists. split; [cbn; rewrite Hnd, !Hd; cbn; rewrite Ht; reflexivity|].
      cbn. split; [reflexivity|]. split; [rewrite ldiff_nil_r; apply app_nil_r|]. eexists _, _. split; [reflexivity|].
      cbn. repeat split. apply ListLemmas.filter_all. reflexivity. }
    destruct He as (e0 & He & Hn0 & Hs0 & h & c & Hch & Hid & Hfiles & Hlate & Hcd & Hcr).
    exists e0. split; [exact He|].
    constructor; cbn [vs_cur vs_olds vs_nvid vs_manifest vr_id vr_levels vr_ref vr_released ghost_start
                      g_held g_seen cnth]; auto.
    + apply (env_evs_wf _ _ _ env_init_wf He).
    + exists h, [c]. rewrite Hch. split; [reflexivity|]. split; [exact Hid|]. split; [exact Hfiles|]. split; [exact Hlate|].
      split; [constructor; auto|]. cbn [filter]. rewrite Hcr. reflexivity.
    + intros o [].
    + intros v [].
Qed.

Lemma session_sim : forall o ops, vl_disciplined o ops = true ->
  exists st0 ev0 st evs e,
    vl_start o = VOk (st0, ev0) /\ vl_run o ops = VOk (st, evs) /\
    env_evs env_init evs = Some e /\ VInv st (ghost_from st0 (ghost_start st0) ops) e.
Proof.
  intros o ops Hd. unfold vl_disciplined in Hd. unfold vl_run.
  destruct (vl_start o) as [[st0 ev0]|q] eqn:Hs; [|discriminate].
  apply andb_true_iff in Hd. destruct Hd as [Hnd Hd].
  destruct (start_sim o st0 ev0 Hs Hnd) as (e0 & He0 & HI0).
  destruct (run_sim ops st0 _ e0 HI0 Hd) as (st & evs & e & Hr & He & HI). rewrite Hr.
  exists st0, ev0, st, (ev0 ++ evs), e. split; [reflexivity|]. split; [reflexivity|].
  split; [rewrite env_evs_app, He0; exact He|exact HI].
Qed.

Lemma env_run_of_events : forall ins evs e,
  untick (map fst ins) = evs -> env_evs env_init evs = Some e -> env_run ins = Some e.
Proof.
  intros ins evs e Hu He. unfold env_run. rewrite env_run_from_evs, <- env_evs_untick, Hu. exact He.
Qed.

Theorem session_emits_env_ok : forall o ops, vl_disciplined o ops = true ->
  exists st evs, vl_run o ops = VOk (st, evs) /\
    forall ins, untick (map fst ins) = evs -> env_ok ins = true.
Proof.
  intros o ops Hd. destruct (session_sim o ops Hd) as (st0 & ev0 & st & evs & e & _ & Hr & He & _).
  exists st, evs. split; [exact Hr|]. intros ins Hu. unfold env_ok.
  rewrite (env_run_of_events ins evs e Hu He). reflexivity.
Qed.

(* the versions a reader can hold after the operations: the current one and the replaced ones that
   are still referenced *)
Definition vl_live (st : vstate) : list vrec := vs_cur st :: vs_olds st.

Lemma vinv_live : forall st g e v, VInv st g e -> In v (vl_live st) ->
  exists c, In c (live e) /\ v_files c = flat (vr_levels v).
Proof.
  intros st g e v HI Hv. unfold live. destruct Hv as [ <- |Hv].
  - destruct (vi_chain _ _ _ HI) as (h & rest & Hch & _ & Hfiles & _). destruct (vi_wf _ _ _ HI) as (_ & Hhd & _).
    rewrite Hch in *. exists h. split; [|exact Hfiles]. apply filter_In. split; [left; reflexivity|].
    rewrite (proj2 (head_nodelta _ _ Hhd)). reflexivity.
  - destruct (vinv_old_ver st g e v HI Hv) as (c & Hc & Hr & Hk & _). injection Hk as _ Hf.
    exists c. split; [|exact Hf]. apply filter_In. split; [exact Hc|]. rewrite Hr. reflexivity.
Qed.

Theorem files_safe_end_to_end : forall p o ops, vl_disciplined o ops = true ->
  exists st evs, vl_run o ops = VOk (st, evs) /\
    forall ins, untick (map fst ins) = evs ->
    forall pre suf, ins = pre ++ suf ->
    exists s rm, run p pre = Ok (s, rm) /\
      forall v f, In v (vl_live st) -> In f (flat (vr_levels v)) -> ~ In f rm.
Proof.
  intros p o ops Hd. destruct (session_sim o ops Hd) as (st0 & ev0 & st & evs & e & _ & Hr & He & HI).
  exists st, evs. split; [exact Hr|]. intros ins Hu pre suf Hsplit.
  pose proof (env_run_of_events ins evs e Hu He) as Hrun.
  assert (Hok : env_ok ins = true) by (unfold env_ok; rewrite Hrun; reflexivity).
  destruct (refloop_safe p ins Hok ins [] (eq_sym (app_nil_r ins))) as (e' & s & rm & Hrun' & Hrn & Hsafe).
  rewrite Hrun in Hrun'. inversion Hrun'; subst e'; clear Hrun'.
  unfold run in Hrn. rewrite Hsplit, run_from_app in Hrn.
  destruct (run_from p init pre) as [[s1 rm1]| |] eqn:H1; try discriminate.
  destruct (run_from p s1 suf) as [[s2 rm2]| |]; try discriminate. injection Hrn as _ <-.
  exists s1, rm1. split; [exact H1|]. intros v f Hv Hf Hin.
  destruct (vinv_live st _ e v HI Hv) as (c & Hc & Hcf).
  apply (Hsafe c f Hc); [rewrite Hcf; exact Hf|]. apply in_or_app. left. exact Hin.
Qed.

Theorem files_complete_end_to_end : forall p o ops, vl_disciplined o ops = true ->
  exists st evs, vl_run o ops = VOk (st, evs) /\
    (vs_olds st = [] ->
     forall ins, untick (map fst ins) = evs ->
     exists s rm, run p ins = Ok (s, rm) /\ NoDup rm /\
       (forall f, In f rm <-> In f (vl_seen o ops) /\ ~ In f (flat (vr_levels (vs_cur st)))) /\
       Permutation rm (ldiff (vl_seen o ops) (flat (vr_levels (vs_cur st)))) /\
       released s = [] /\ deltas s = [] /\
       (forall f, 1 <= cnt (fileRef s) f -> In f (flat (vr_levels (vs_cur st))))).
Proof.
  intros p o ops Hd. destruct (session_sim o ops Hd) as (st0 & ev0 & st & evs & e & Hs & Hr & He & HI).
  exists st, evs. split; [exact Hr|]. intros Holds ins Hu.
  pose proof (env_run_of_events ins evs e Hu He) as Hrun.
  destruct (vi_chain _ _ _ HI) as (h & rest & Hch & Hid & Hfiles & _ & Hfa & Hk).
  assert (Hq : quiescent e = true).
  { unfold quiescent. rewrite Hch. rewrite (settled_rest h rest Hfa). cbn [andb].
    apply forallb_forall. intros c Hc. destruct (v_rel c) eqn:Hrel; [reflexivity|].
    rewrite Holds in Hk. symmetry in Hk. apply map_eq_nil in Hk.
    assert (Hin : In c (filter (fun c => negb (v_rel c)) rest)) by (apply filter_In; rewrite Hrel; auto).
    rewrite Hk in Hin. destruct Hin. }
  destruct (refloop_complete p ins e Hrun Hq) as (s & rm & Hrn & Hnd & Hiff & Hperm & Hrel & Hdl & Hcnt).
  assert (Hseen : e_seen e = vl_seen o ops).
  { unfold vl_seen. rewrite Hs. rewrite (vi_seen _ _ _ HI). reflexivity. }
  assert (Hcur : cur_files e = flat (vr_levels (vs_cur st))) by (unfold cur_files; rewrite Hch; exact Hfiles).
  rewrite Hseen, Hcur in *. exists s, rm. repeat split; auto; apply Hiff; assumption.
Qed.
