(* Conc/CacheLtsProofs.v — proofs about the interleaved semantics Conc/CacheLts.v.
   1. The LTS contains the sequential semantics: a goroutine running alone executes exactly [step_raw];
      hence every state reachable sequentially is reachable in the LTS (so the differential validation
      of the sequential model against the implementation also validates these LTS paths).
   2. The schedule in which Close races a pending zero-check: refuted for the behaviour before the repair,
      harmless after it.
   3. [run_invariant]: what every step preserves holds after an accepted trace, for any of the trace acceptors.
   The safety invariants over all interleavings are in Conc/CacheLtsInv.v and Conc/CacheLtsClose.v.
   Proof file. *)
From GL Require Import Conc.Cache Conc.CacheLemmas Conc.CacheInv Conc.CacheProofs Conc.CacheTheorems Conc.CacheLts.

Lemma lru_promote_split x s : lru_promote x s = let (s', ev) := promote_locked x s in release_all ev s'.
Proof.
  unfold lru_promote, promote_locked. destruct (find_id x (s_nodes s)); auto.
  destruct (n_lru n); auto. destruct (n_size n <=? s_cap s); auto.
Qed.

Lemma lru_ban_split x s : lru_ban x s = let (s', ev) := ban_locked x s in release_all ev s'.
Proof.
  unfold lru_ban, ban_locked. destruct (find_id x (s_nodes s)); auto. destruct (n_lru n); auto.
Qed.

Lemma lru_evict_split x s : lru_evict x s = let (s', ev) := evict_locked x s in release_all ev s'.
Proof.
  unfold lru_evict, evict_locked. destruct (find_id x (s_nodes s)); auto. destruct (n_lru n); auto.
Qed.

Lemma drains_app s k1 s1 k2 s2 : drains s k1 s1 -> drains s1 k2 s2 -> drains s (k1 ++ k2) s2.
Proof.
  induction 1 as [|s i k sa new sb E D IH]; intro D2; cbn; auto.
  econstructor; [exact E|]. rewrite app_assoc. apply IH. exact D2.
Qed.

Lemma drains_one s i s1 k s2 : drains s [i] s1 -> drains s1 k s2 -> drains s (i :: k) s2.
Proof. intros A B. exact (drains_app s [i] s1 k s2 A B). Qed.

Lemma drains_dec_ext x s : drains s [IDec x true] (unref_external x s).
Proof.
  unfold unref_external. destruct (find_id x (s_nodes s)) as [n|] eqn:F.
  - destruct (n_ref n - 1 =? 0)%Z eqn:Z.
    + econstructor; [cbn; rewrite F, Z; reflexivity|]. cbn [app].
      econstructor; [cbn [exec andb]; reflexivity|]. cbn [app]. unfold upd_node at 1 2. sred.
      destruct (s_closed s); [|constructor].
      unfold zero_check_closed, upd_node. sred. rewrite find_id_upd by auto with cache. rewrite F.
      destruct (find_id_some _ _ _ F) as [_ Hx]. rewrite Hx, N.eqb_refl. cbn [n_ref nd_ref].
      apply Z.eqb_eq in Z. rewrite Z. cbn [Z.eqb]. constructor.
    + econstructor; [cbn; rewrite F, Z; reflexivity|]. constructor.
  - econstructor; [cbn; rewrite F; reflexivity|]. constructor.
Qed.

Lemma drains_dec_int x s : drains s [IDec x false] (unref_internal x s).
Proof.
  unfold unref_internal. destruct (find_id x (s_nodes s)) as [n|] eqn:F.
  - destruct (n_ref n - 1 =? 0)%Z eqn:Z.
    + econstructor; [cbn; rewrite F, Z; reflexivity|]. cbn.
      econstructor; [cbn; reflexivity|]. constructor.
    + econstructor; [cbn; rewrite F, Z; reflexivity|]. constructor.
  - econstructor; [cbn; rewrite F; reflexivity|]. constructor.
Qed.

Lemma drains_decs ev : forall s, drains s (decs true ev) (release_all ev s).
Proof.
  unfold release_all. induction ev as [|x ev IH]; intro s; cbn; [constructor|].
  eapply drains_one; [apply drains_dec_ext|apply IH].
Qed.

Lemma drains_promote x s k s2 : drains (lru_promote x s) (IHandle x :: k) s2 -> drains s (IPromote x :: k) s2.
Proof.
  intro D. rewrite lru_promote_split in D. destruct (promote_locked x s) as [s' ev] eqn:E.
  econstructor; [cbn; rewrite E; reflexivity|]. rewrite <- app_assoc.
  eapply drains_app; [apply drains_decs|exact D].
Qed.
Lemma drains_ban x s : drains s [IBan x] (lru_ban x s).
Proof.
  rewrite lru_ban_split. destruct (ban_locked x s) as [s' ev] eqn:E.
  econstructor; [cbn; rewrite E; reflexivity|]. rewrite app_nil_r. apply drains_decs.
Qed.
Lemma drains_evict x s : drains s [IEvict x] (lru_evict x s).
Proof.
  rewrite lru_evict_split. destruct (evict_locked x s) as [s' ev] eqn:E.
  econstructor; [cbn; rewrite E; reflexivity|]. rewrite app_nil_r. apply drains_decs.
Qed.

Lemma drains_evict_ids l : forall s, drains s (map IEvict l) (evict_ids l s).
Proof.
  unfold evict_ids. induction l as [|x l IH]; intro s; cbn; [constructor|].
  eapply drains_one; [apply drains_evict|apply IH].
Qed.

Lemma drains_get_finish x s : s_panic (fst (get_finish x s)) = false ->
  drains s (if s_cacher s then [IPromote x] else [IHandle x]) (fst (get_finish x s)).
Proof.
  unfold get_finish. cbv zeta. intro NP.
  destruct (find_id x (s_nodes (if s_cacher s then lru_promote x s else s))) as [n|] eqn:F; [|discriminate NP].
  destruct (n_val n) as [v|] eqn:V; [|discriminate NP]. cbn [fst].
  assert (forall z, find_id x (s_nodes z) = Some n ->
            drains z [IHandle x] (set_next_hid (s_next_hid z + 1) (set_handles ((s_next_hid z, x) :: s_handles z) z))) as HH.
  { intros z Fz. econstructor; [cbn; rewrite Fz, V; reflexivity|]. constructor. }
  destruct (s_cacher s); [apply drains_promote|]; apply HH; exact F.
Qed.

(* the tail of Delete and Evict: the cacher's method [f] (one instruction [i]), if there is a cacher, then the
   release of the reference that mBucket.get took *)
Lemma drains_cacher_dec i f x s : drains s [i] (f s) ->
  drains s ((if s_cacher s then [i] else []) ++ [IDec x false]) (unref_internal x (if s_cacher s then f s else s)).
Proof. intro D. eapply drains_app; [|apply drains_dec_int]. destruct (s_cacher s); [exact D|constructor]. Qed.

(* Close(false) after its flag section: one lru.Evict per node *)
Lemma drains_close_nodes l : forall s,
  drains s (if s_cacher s then map IEvict l else []) (fold_left (close_node false) l s).
Proof.
  induction l as [|x l IH]; intro s; cbn [map fold_left]; [destruct (s_cacher s); constructor|].
  specialize (IH (close_node false s x)).
  assert (s_cacher (close_node false s x) = s_cacher s) as C by apply (close_fold_KK false [x] s).
  rewrite C in IH. unfold close_node in IH |- *. destruct (s_cacher s); [|exact IH].
  exact (drains_one _ _ _ _ _ (drains_evict x s) IH).
Qed.

Lemma unref_internal_panic x s : s_panic s = true -> s_panic (unref_internal x s) = true.
Proof.
  intro P. unfold unref_internal. destruct (find_id x (s_nodes s)) as [n|]; [|exact P].
  destruct (n_ref n - 1 =? 0)%Z; unfold upd_node; sred; [|exact P].
  unfold cache_delete. sred. destruct (find_key (n_ns n) (n_key n) _) as [m|]; [|sred; exact P].
  destruct (n_ref m =? 0)%Z; sred; exact P.
Qed.

(* the sequential operation is one run of the goroutine's code, started by the operation's first
   critical section; stated for the states in which the model does not raise its panic flag inside
   get_finish, i.e. (by C17_no_panic) for all reachable ones *)
Lemma seq_schedule s o : s_panic (fst (step_raw s o)) = false ->
  match start o false s with
  | Some (s1, code, _) => drains s1 code (fst (step_raw s o))
  | None => False
  end.
Proof.
  intro NP. destruct o; cbn [step_raw fst start] in *.
  - unfold cache_get in *. destruct (s_closed s); [constructor|].
    destruct (bucket_get ns key _ s) as [s1 [x|]]; [|constructor].
    destruct (find_id x (s_nodes s1)) as [n|] eqn:F; [|discriminate NP].
    destruct (n_val n) as [v|] eqn:V; [|destruct sf as [|sz [|]]]; cbn [fst] in NP |- *;
      (econstructor; [cbn; rewrite F, V; reflexivity|]); cbn [app].
    + rewrite app_nil_r. exact (drains_get_finish x s1 NP).
    + apply drains_dec_int.
    + rewrite app_nil_r. exact (drains_get_finish x _ NP).
    + apply drains_dec_int.
  - unfold handle_release. destruct (find (fun p => fst p =? h) (s_handles s)) as [p|]; [|constructor].
    apply drains_dec_ext.
  - unfold cache_delete_op in *. destruct (s_closed s); [constructor|].
    assert (s_next_did (fst (bucket_get ns key true s)) = s_next_did s) as Dd.
    { unfold bucket_get. destruct (find_key ns key (s_nodes s)); reflexivity. }
    destruct with_del; [rewrite bucket_get_next_did in *|];
      destruct (bucket_get ns key true s) as [s1 [x|]]; cbn [fst snd app] in *.
    + sred. destruct (find_id x (s_nodes s1)) as [n|] eqn:F.
      * eapply drains_one; [econstructor; [cbn [exec]; rewrite F, Dd; reflexivity|constructor]|].
        exact (drains_cacher_dec _ _ x _ (drains_ban x _)).
      * (* no such node: the model has raised its panic flag *)
        rewrite unref_internal_panic in NP; [discriminate|].
        destruct (s_cacher _); [|reflexivity]. unfold lru_ban. sred. rewrite F. reflexivity.
    + rewrite Dd. constructor.
    + apply drains_cacher_dec, drains_ban.
    + constructor.
  - unfold cache_evict_op in *. destruct (s_closed s); [constructor|].
    destruct (bucket_get ns key true s) as [s1 [x|]]; [|constructor].
    apply drains_cacher_dec, drains_evict.
  - unfold cache_evict_ns. destruct (s_closed s); [constructor|].
    destruct (s_cacher s); [apply drains_evict_ids|constructor].
  - unfold cache_evict_all. destruct (s_closed s); [constructor|].
    destruct (s_cacher s); [apply drains_evict_ids|constructor].
  - unfold cache_set_capacity, lru_set_capacity. destruct (s_cacher s); [|constructor].
    destruct (run_evict_loop (set_cap c s)) as [s1 ev]. apply drains_decs.
  - unfold cache_close. destruct (s_closed s); [constructor|]. destruct force; [constructor|].
    apply (drains_close_nodes _ (set_closed true false s)).
Qed.

Theorem seq_is_a_schedule s o :
  s_panic (fst (step_raw s o)) = false ->
  exists s1 code rl, start o false s = Some (s1, code, rl) /\ drains s1 code (fst (step_raw s o)).
Proof.
  intro NP. pose proof (seq_schedule s o NP) as D.
  destruct (start o false s) as [[[s1 code] rl]|]; [|contradiction]. exists s1, code, rl. split; [reflexivity|exact D].
Qed.

Definition all_idle (l : list (N * thread)) : Prop := Forall (fun p => t_code (snd p) = []) l.

Lemma get_set_same t th l : get_thr t (set_thr t th l) = th.
Proof. unfold get_thr, set_thr. cbn. now rewrite N.eqb_refl. Qed.

Lemma all_idle_in l p : all_idle l -> In p l -> t_code (snd p) = [].
Proof. intro H. exact (proj1 (Forall_forall _ l) H p). Qed.

Lemma all_idle_set t rl l : all_idle l -> all_idle (set_thr t (mkThread [] rl) l).
Proof.
  intro H. unfold all_idle, set_thr. constructor; [reflexivity|].
  apply Forall_forall. intros p Hp. apply filter_In in Hp. exact (all_idle_in l p H (proj1 Hp)).
Qed.

Lemma all_idle_get t l : all_idle l -> t_code (get_thr t l) = [].
Proof.
  intro H. unfold get_thr. destruct (find (fun p => fst p =? t) l) as [p|] eqn:F; [|reflexivity].
  exact (all_idle_in l p H (proj1 (find_some _ _ F))).
Qed.

Lemma all_idle_norlock t l : all_idle l -> rlocked_other t l = false.
Proof.
  intro H. unfold rlocked_other. apply not_true_is_false. intro E. apply existsb_exists in E.
  destruct E as (p & Hp & Q). apply andb_true_iff in Q. destruct Q as [_ Q]. unfold holds_rlock in Q.
  rewrite (all_idle_in l p H Hp), andb_false_r in Q. discriminate.
Qed.

Lemma set_set t th th' l : set_thr t th (set_thr t th' l) = set_thr t th l.
Proof.
  unfold set_thr. cbn. rewrite N.eqb_refl. cbn. f_equal.
  induction l as [|p l IH]; cbn; auto. destruct (fst p =? t) eqn:E; cbn; auto. rewrite E. cbn. f_equal. exact IH.
Qed.

Lemma drains_lreach t : forall s code s2, drains s code s2 ->
  forall rl l, lreach (mkL s (set_thr t (mkThread code rl) l)) ->
  lreach (mkL s2 (set_thr t (mkThread [] rl) l)).
Proof.
  induction 1 as [|s i k s1 new s2 E D IH]; intros rl l R; auto.
  apply IH. eapply lr_step with (a := AStep t); [exact R|]. unfold lstep. cbv zeta. cbn [l_thr l_g].
  rewrite get_set_same. cbn [t_code t_rl]. rewrite E. rewrite set_set. reflexivity.
Qed.

Theorem seq_reachable_in_lts : forall s, reachable s ->
  exists L, lreach L /\ l_g L = s /\ all_idle (l_thr L).
Proof.
  intros s (c & cap & ops & ->). induction ops as [|o ops IH] using rev_ind.
  - exists (linit c cap). split; [constructor|]. split; [reflexivity|constructor].
  - destruct IH as (L & RL & GL & IL). unfold run in *. rewrite fold_left_app. cbn [fold_left].
    set (s := fold_left (fun s o => fst (step s o)) ops (init c cap)) in *.
    assert (Good zq0 s) as G by (apply reachable_good; exists c, cap, ops; reflexivity).
    destruct (step_no_panic zq0 s o G) as [_ NP]. rewrite step_raw_fst in *.
    destruct (seq_is_a_schedule s o NP) as (s1 & code & rl & St & Dr).
    destruct L as [g thr]. cbn in GL, IL. subst g.
    exists (mkL (fst (step_raw s o)) (set_thr 0 (mkThread [] rl) thr)). split; [|split; [reflexivity|]].
    + apply (drains_lreach 0 s1 code _ Dr rl thr). eapply lr_step with (a := AStart 0 o); [exact RL|].
      unfold lstep. cbn [l_thr l_g]. rewrite (all_idle_get 0 thr IL), (all_idle_norlock 0 thr IL), St. reflexivity.
    + cbn. now apply all_idle_set.
Qed.

(* what every step preserves holds after an accepted trace; [run] is any of the trace acceptors
   ([lrun_o], [lrun_c], [krun]), given by its two defining equations *)
Lemma run_invariant {St Act} (step : St -> Act -> option St) (run : St -> list Act -> option St) (P : St -> Prop) :
  (forall s, run s [] = Some s) ->
  (forall s a tr, run s (a :: tr) = match step s a with Some s' => run s' tr | None => None end) ->
  (forall s a s', P s -> step s a = Some s' -> P s') ->
  forall tr s s', P s -> run s tr = Some s' -> P s'.
Proof.
  intros Rnil Rcons Hstep. induction tr as [|a tr IH]; intros s s' Hs E.
  - rewrite Rnil in E. injection E as <-. exact Hs.
  - rewrite Rcons in E. destruct (step s a) as [s1|] eqn:E1; [|discriminate].
    exact (IH s1 s' (Hstep s a s1 Hs E1) E).
Qed.

Lemma lrun_o_reach tr : forall L L', lreach_o L -> lrun_o L tr = Some L' -> lreach_o L'.
Proof. exact (run_invariant lstep_o lrun_o lreach_o (fun _ => eq_refl) (fun _ _ _ => eq_refl) lo_step tr). Qed.

Lemma lrun_c_reach tr : forall L L', lreach_c L -> lrun_c L tr = Some L' -> lreach_c L'.
Proof. exact (run_invariant lstep_c lrun_c lreach_c (fun _ => eq_refl) (fun _ _ _ => eq_refl) lc_step tr). Qed.

(* with every goroutine idle, the guard that [lstep_q] puts on Close holds *)
Lemma all_idle_others t l : all_idle l -> others_idle t l = true.
Proof.
  intro H. unfold others_idle. apply forallb_forall. intros p Hp. rewrite (all_idle_in l p H Hp). apply orb_true_r.
Qed.

(* Close racing a pending zero-check: REFUTED.
   unRefExternal decrements the count, and only then takes Cache.mu.RLock and looks at r.closed; on a
   closed cache it calls n.callFinalizer() WITHOUT re-checking the count.  If, between the decrement to 0
   and that check, another goroutine's Get revives the node (0 -> 1, a hit on the still-linked node) and
   a third goroutine closes the cache (without force), the value is finalised while the second
   goroutine's handle is outstanding.  The LTS with the pre-repair behaviour ([exec_old]) exhibits it;
   with the re-read of the count ([exec], after the repair) the same schedule leaves the value alive. *)
Definition close_race_trace : list action :=
  [ AStart 1 (OGet 0 0 (SfRet 1 true)); AStep 1; AStep 1;      (* goroutine 1: Get constructs value 0, handle 0 *)
    AStart 1 (ORelease 0); AStep 1;                              (* goroutine 1: Release: count 1 -> 0, zero-check pending *)
    AStart 2 (OGet 0 0 SfNil); AStep 2; AStep 2;                 (* goroutine 2: Get hits the node: count 0 -> 1, handle 1 *)
    AStart 3 (OClose false);                                      (* goroutine 3: Close(false) *)
    AStep 1 ].                                                    (* goroutine 1: sees closed: callFinalizer *)

Theorem close_race_refuted :
  exists L, lrun_old (linit false 0) close_race_trace = Some L /\
    s_forced (l_g L) = false /\                                   (* not a force-close *)
    handles_on 0 (s_handles (l_g L)) = 1%nat /\                   (* a handle on node 0 is outstanding *)
    handle_node (l_g L) 1 <> None /\ handle_value (l_g L) 1 = None /\   (* ... and sees a dead (nil) value *)
    In (EvConstruct 0 0 1) (s_log (l_g L)) /\ cf 0 (s_log (l_g L)) = 1%nat.   (* value 0 was finalised *)
Proof.
  eexists. split; [vm_compute; reflexivity|]. vm_compute. repeat split; auto. discriminate.
Qed.

Theorem close_race_repaired :
  exists L, lrun (linit false 0) close_race_trace = Some L /\
    handles_on 0 (s_handles (l_g L)) = 1%nat /\ handle_value (l_g L) 1 = Some 0 /\ cf 0 (s_log (l_g L)) = 0%nat.
Proof. eexists. split; [vm_compute; reflexivity|]. vm_compute. repeat split; auto. Qed.
