(* Conc/CacheTheorems.v — the C17 statements for the sequential semantics, derived from the invariant
   established in Conc/CacheProofs.v for every reachable state (any cacher, any capacity, any
   operation sequence, no bound).  Proof file. *)
From GL Require Import Conc.Cache Conc.CacheLemmas Conc.CacheInv Conc.CacheProofs.
From Coq Require Import Lia.

Lemma count_le1_unique p (l : list event) e1 e2 :
  (count_ev p l <= 1)%nat -> In e1 l -> In e2 l -> p e1 = true -> p e2 = true -> e1 = e2.
Proof.
  unfold count_ev. induction l as [|a l IH]; cbn; intros Hc H1 H2 P1 P2; [tauto|].
  destruct (p a) eqn:Pa; cbn in Hc.
  - assert (length (filter p l) = 0%nat) as Z by lia.
    assert (forall e, In e l -> p e = true -> False) as No.
    { intros e He Pe. assert (In e (filter p l)) as Hin by (apply filter_In; auto).
      destruct (filter p l); [destruct Hin|discriminate]. }
    destruct H1 as [<-|H1]; destruct H2 as [<-|H2]; auto; exfalso; eauto.
  - destruct H1 as [<-|H1]; [congruence|]. destruct H2 as [<-|H2]; [congruence|]. auto.
Qed.

Lemma handle_node_in s h n :
  handle_node s h = Some n -> exists x, In (h, x) (s_handles s) /\ In n (s_nodes s) /\ n_id n = x.
Proof.
  unfold handle_node. destruct (find (fun p => fst p =? h) (s_handles s)) as [[h' x]|] eqn:F; [|discriminate].
  destruct (find_handle_some _ _ _ F) as [Hin e]. cbn in *. subst h'. intro Fi.
  destruct (find_id_some _ _ _ Fi). eauto.
Qed.

Definition zq0 : N -> bool := fun _ => false.

(* Consequences of the invariant alone: they hold in every state satisfying [Inv zq p] — the reachable states of
   the sequential semantics (zq = none, p = 0) and of the interleaved semantics (zq = pending zero-checks,
   p = references held by pending instructions) alike *)
Section Gen.
  Variable zq : N -> bool.
  Variable pf : N -> Z.
  Variable s : state.
  Hypothesis HI : Inv zq pf s.
  Let HS := inv_s _ _ _ HI.
  Let HR := inv_r _ _ _ HI.
  Let HL := inv_l _ _ _ HI.

  Theorem one_live_value_gen :
    s_forced s = false ->
    forall h1 h2 n1 n2, handle_node s h1 = Some n1 -> handle_node s h2 = Some n2 -> keyof n1 = keyof n2 ->
      n1 = n2 /\
      exists v, handle_value s h1 = Some v /\ handle_value s h2 = Some v /\
                ccn (n_id n1) (s_log s) = 1%nat /\ ccv v (s_log s) = 1%nat /\ cf v (s_log s) = 0%nat.
  Proof.
    intros Hf h1 h2 n1 n2 E1 E2 K. unfold InvS, InvR, InvL in *.
    destruct (handle_node_in _ _ _ E1) as (x1 & Hh1 & Hn1 & Hx1).
    destruct (handle_node_in _ _ _ E2) as (x2 & Hh2 & Hn2 & Hx2).
    assert (n1 = n2) as <-.
    { pose proof (SInv_find_key _ _ _ _ _ HS Hn1) as A. pose proof (SInv_find_key _ _ _ _ _ HS Hn2) as B.
      unfold keyof in K. inversion K as [[Kn Kk]]. rewrite Kn, Kk in A. congruence. }
    split; auto.
    assert (n_val n1 <> None) as Hv.
    { apply (ri_hval _ _ _ _ _ _ _ _ _ HR Hf n1 Hn1). apply hcount_pos_in. exists h1. now rewrite Hx1. }
    destruct (n_val n1) as [v|] eqn:V; [|congruence]. exists v.
    unfold handle_value. rewrite E1, E2, V. split; auto. split; auto.
    destruct (li_vlive _ _ _ _ _ _ HL n1 v Hn1 V) as [Z Hin].
    assert (forall p e, In e (s_log s) -> p e = true -> (count_ev p (s_log s) <= 1)%nat -> count_ev p (s_log s) = 1%nat) as One.
    { intros p e He Pe Le. assert (0 < count_ev p (s_log s))%nat by (apply count_ev_pos; eauto). lia. }
    split; [|split]; auto.
    - apply (One _ _ Hin); [cbn; apply N.eqb_refl|apply (li_cons_n1 _ _ _ _ _ _ HL)].
    - apply (One _ _ Hin); [cbn; apply N.eqb_refl|apply (li_cons_v1 _ _ _ _ _ _ HL)].
  Qed.

  (* the constructor never ran twice for one residency (node identity), nor twice for one value *)
  Theorem construct_once_gen : forall x v, (ccn x (s_log s) <= 1)%nat /\ (ccv v (s_log s) <= 1)%nat.
  Proof. intros x v. split; [apply (li_cons_n1 _ _ _ _ _ _ HL)|apply (li_cons_v1 _ _ _ _ _ _ HL)]. Qed.

  Theorem finalise_at_most_once_gen : forall v, (cf v (s_log s) <= 1)%nat.
  Proof. apply (li_final_le _ _ _ _ _ _ HL). Qed.

  Lemma live_handle_facts x :
    s_forced s = false -> (0 < hcount x (s_handles s))%Z ->
    exists n v, In n (s_nodes s) /\ n_id n = x /\ n_val n = Some v.
  Proof.
    intros Hf Hh. unfold InvS, InvR, InvL in *. apply hcount_pos_in in Hh. destruct Hh as (h & Hh).
    pose proof (ri_hnode _ _ _ _ _ _ _ _ _ HR h x Hh) as Hin. unfold ids in Hin. apply in_map_iff in Hin.
    destruct Hin as (n & Hx & Hn).
    assert (n_val n <> None) as Hv.
    { apply (ri_hval _ _ _ _ _ _ _ _ _ HR Hf n Hn). apply hcount_pos_in. exists h. now rewrite Hx. }
    destruct (n_val n) as [v|] eqn:V; [|congruence]. eauto.
  Qed.

  (* a finalised value has no outstanding handle (unless force-closed): the value constructed for
     residency x, once finalised, is not reachable through any live handle *)
  Theorem finalise_not_early_gen :
    s_forced s = false ->
    forall x v sz, In (EvConstruct x v sz) (s_log s) -> (1 <= cf v (s_log s))%nat -> handles_on x (s_handles s) = 0%nat.
  Proof.
    intros Hf x v sz Hin Hc. unfold InvS, InvR, InvL in *.
    destruct (Nat.eq_dec (handles_on x (s_handles s)) 0) as [|ne]; auto. exfalso.
    destruct (live_handle_facts x Hf) as (n & v' & Hn & Hx & V). { unfold hcount. lia. }
    destruct (li_vlive _ _ _ _ _ _ HL n v' Hn V) as [Z Hin'].
    assert (EvConstruct x v sz = EvConstruct (n_id n) v' (n_size n)) as E.
    { apply (count_le1_unique (is_construct_n x) (s_log s)); auto.
      - apply (li_cons_n1 _ _ _ _ _ _ HL).
      - cbn. apply N.eqb_refl.
      - cbn. rewrite Hx. apply N.eqb_refl. }
    inversion E as [[e1 e2 e3]]. rewrite e2 in Hc. unfold cf in *. lia.
  Qed.

  (* every constructed value is either still held by its node or has been finalised exactly once *)
  Theorem finalise_or_live_gen :
    forall x v sz, In (EvConstruct x v sz) (s_log s) ->
      cf v (s_log s) = 1%nat \/ (cf v (s_log s) = 0%nat /\ exists n, In n (s_nodes s) /\ n_id n = x /\ n_val n = Some v).
  Proof.
    intros x v sz Hin. unfold InvL in *. destruct (li_vdead _ _ _ _ _ _ HL x v sz Hin) as [|(n & Hn & Hx & V)]; auto.
    right. split; eauto. apply (li_vlive _ _ _ _ _ _ HL n v Hn V).
  Qed.

  Theorem delfunc_at_most_once_gen : forall d, (cdr d (s_log s) <= 1)%nat.
  Proof. apply (li_drun_le _ _ _ _ _ _ HL). Qed.

  Theorem delfunc_not_early_gen :
    s_forced s = false ->
    forall d x, In (EvDelReg d x) (s_log s) -> (1 <= cdr d (s_log s))%nat -> handles_on x (s_handles s) = 0%nat.
  Proof.
    intros Hf d x Hin Hc. unfold InvS, InvR, InvL in *.
    destruct (Nat.eq_dec (handles_on x (s_handles s)) 0) as [|ne]; auto. exfalso.
    destruct (live_handle_facts x Hf) as (n & v' & Hn & Hx & V). { unfold hcount. lia. }
    destruct (li_dreg _ _ _ _ _ _ HL d x Hin) as (_ & _ & Q). destruct (Q n Hn Hx) as [Hd|(e & _)]; [|congruence].
    pose proof (li_dnotrun _ _ _ _ _ _ HL n d Hn Hd). lia.
  Qed.

  Theorem delfunc_ran_or_pending_gen :
    forall d, d < s_next_did s ->
      cdr d (s_log s) = 1%nat \/ (cdr d (s_log s) = 0%nat /\ exists n, In n (s_nodes s) /\ In d (n_dels n)).
  Proof.
    intros d Hd. unfold InvL in *. destruct (li_dall _ _ _ _ _ _ HL d Hd) as [|(n & Hn & Hin)]; auto.
    right. split; eauto. apply (li_dnotrun _ _ _ _ _ _ HL n d Hn Hin).
  Qed.

  (* the recency list holds exactly the linked nodes, once each *)
  Theorem lru_list_exact_gen :
    NoDup (s_order s) /\ forall x, In x (s_order s) <-> exists n, In n (s_nodes s) /\ n_id n = x /\ resident n = true.
  Proof. unfold InvS in *. split; [apply (si_ord_nd _ _ _ _ HS)|apply (si_ord _ _ _ _ HS)]. Qed.

  Theorem unique_keys_gen : NoDup (map keyof (s_nodes s)).
  Proof. unfold InvS in *. apply (si_keys _ _ _ _ HS). Qed.

  (* reference census: ref = outstanding handles + (1 if linked in the LRU) + references in flight *)
  Theorem ref_census_gen :
    s_forced s = false -> forall n, In n (s_nodes s) ->
      n_ref n = (Z.of_nat (handles_on (n_id n) (s_handles s)) + (if resident n then 1 else 0) + pf (n_id n))%Z /\ (0 <= n_ref n)%Z.
  Proof.
    intros Hf n Hn. unfold InvR in *. pose proof (ri_ref _ _ _ _ _ _ _ _ _ HR Hf n Hn) as E.
    pose proof (ri_p _ _ _ _ _ _ _ _ _ HR (n_id n)).
    unfold rcount, hcount in E. split; [destruct (resident n); lia|]. destruct (resident n); lia.
  Qed.

  Theorem used_exact_gen : s_used s = used_sum (s_nodes s).
  Proof. unfold InvS in *. rewrite used_sum_nsum. apply (si_used _ _ _ _ HS). Qed.

  Theorem no_panic_flag_gen : s_panic s = false.
  Proof. apply (inv_np _ _ _ HI). Qed.
End Gen.

(* The same statements, and those about Close, for the reachable states of the sequential semantics *)
Section Reachable.
  Variable s : state.
  Hypothesis R : reachable s.

  (* between operations no zero-check is pending and no reference is in flight *)
  Let G : Good zq0 s := reachable_good zq0 s R.
  Let HI : Inv zq0 p0 s := proj1 (proj1 G).
  Let HS := inv_s _ _ _ HI.
  Let HR := inv_r _ _ _ HI.
  Let HL := inv_l _ _ _ HI.

  Definition one_live_value_seq := one_live_value_gen zq0 p0 s HI.
  Definition construct_once_seq := construct_once_gen zq0 p0 s HI.
  Definition finalise_at_most_once_seq := finalise_at_most_once_gen zq0 p0 s HI.
  Definition finalise_not_early_seq := finalise_not_early_gen zq0 p0 s HI.
  Definition finalise_or_live_seq := finalise_or_live_gen zq0 p0 s HI.
  Definition delfunc_at_most_once_seq := delfunc_at_most_once_gen zq0 p0 s HI.
  Definition delfunc_not_early_seq := delfunc_not_early_gen zq0 p0 s HI.
  Definition delfunc_ran_or_pending_seq := delfunc_ran_or_pending_gen zq0 p0 s HI.
  Definition lru_list_exact_seq := lru_list_exact_gen zq0 p0 s HI.
  Definition unique_keys_seq := unique_keys_gen zq0 p0 s HI.

  Lemma closed_released_dead :
    s_closed s = true -> s_handles s = [] -> forall n, In n (s_nodes s) -> n_val n = None /\ n_dels n = [].
  Proof.
    intros Hc Hh n Hn. unfold InvS, InvR, InvL in *. pose proof G as [(_ & _ & CR) _].
    destruct (CR Hc) as (Ho & D). destruct (Bool.bool_dec (s_forced s) true) as [Hf|Hf].
    - destruct (D Hf n Hn) as (_ & a & b). auto.
    - apply Bool.not_true_is_false in Hf. assert (resident n = false) as Hres.
      { destruct (resident n) eqn:Rs; auto. exfalso.
        assert (In (n_id n) (s_order s)) as Hin by (apply (si_ord _ _ _ _ HS); eauto). rewrite Ho in Hin. destruct Hin. }
      pose proof (ri_ref _ _ _ _ _ _ _ _ _ HR Hf n Hn) as E. unfold rcount, p0 in E. rewrite Hres, Hh in E. cbn in E.
      destruct (n_val n) eqn:V.
      + assert (n_val n <> None) as Q by congruence.
        pose proof (ri_pos _ _ _ _ _ _ _ _ _ HR Hf n Hn (or_intror (or_introl Q)) eq_refl). lia.
      + destruct (n_dels n) eqn:Dl; auto.
        assert (n_dels n <> []) as Q by congruence.
        pose proof (ri_pos _ _ _ _ _ _ _ _ _ HR Hf n Hn (or_intror (or_intror Q)) eq_refl). lia.
  Qed.

  (* after Close and the release of every handle: finalised exactly once *)
  Theorem finalise_exactly_once_at_end_seq :
    s_closed s = true -> s_handles s = [] ->
    forall x v sz, In (EvConstruct x v sz) (s_log s) -> cf v (s_log s) = 1%nat.
  Proof.
    intros Hc Hh x v sz Hin. destruct (finalise_or_live_seq x v sz Hin) as [|(_ & n & Hn & _ & V)]; auto.
    destruct (closed_released_dead Hc Hh n Hn). congruence.
  Qed.

  (* an open cache keeps no garbage: every node in the table is held by a handle or linked in the LRU *)
  Theorem open_nodes_pinned_seq :
    s_closed s = false -> forall n, In n (s_nodes s) -> (0 < handles_on (n_id n) (s_handles s))%nat \/ resident n = true.
  Proof.
    intros Hc n Hn. unfold InvR in *. pose proof (forced_false_of_open _ _ _ HI Hc) as Hf.
    pose proof (ri_ref _ _ _ _ _ _ _ _ _ HR Hf n Hn) as E. pose proof (ri_pos _ _ _ _ _ _ _ _ _ HR Hf n Hn (or_introl Hc) eq_refl) as P.
    unfold rcount, p0, hcount in E. destruct (resident n); auto. left. lia.
  Qed.

  Theorem delfunc_exactly_once_at_end_seq :
    s_closed s = true -> s_handles s = [] -> forall d, d < s_next_did s -> cdr d (s_log s) = 1%nat.
  Proof.
    intros Hc Hh d Hd. destruct (delfunc_ran_or_pending_seq d Hd) as [|(_ & n & Hn & Hin)]; auto.
    destruct (closed_released_dead Hc Hh n Hn) as [_ e]. rewrite e in Hin. destruct Hin.
  Qed.

  Theorem capacity_respected_seq : s_used s = used_sum (s_nodes s) /\ (s_used s <= Z.of_N (s_cap s))%Z.
  Proof.
    unfold InvS in *. split; [|apply (proj1 (proj2 (proj1 G)))].
    rewrite used_sum_nsum. apply (si_used _ _ _ _ HS).
  Qed.

  Theorem ref_census_seq :
    s_forced s = false -> forall n, In n (s_nodes s) ->
      n_ref n = (Z.of_nat (handles_on (n_id n) (s_handles s)) + (if resident n then 1 else 0))%Z /\ (0 <= n_ref n)%Z.
  Proof.
    intros Hf n Hn. unfold InvR in *. pose proof (ri_ref _ _ _ _ _ _ _ _ _ HR Hf n Hn) as E.
    unfold rcount, p0, hcount in E. split; [lia|]. destruct (resident n); lia.
  Qed.

  Theorem ref_positive_open_seq : s_closed s = false -> forall n, In n (s_nodes s) -> (0 < n_ref n)%Z.
  Proof.
    intros Hc n Hn. unfold InvR in *. pose proof (forced_false_of_open _ _ _ HI Hc) as Hf.
    apply (ri_pos _ _ _ _ _ _ _ _ _ HR Hf n Hn (or_introl Hc) eq_refl).
  Qed.

  (* no Go panic of the modelled code is reachable *)
  Theorem no_panic_seq : forall o, snd (step s o) <> RPanic /\ s_panic (fst (step s o)) = false.
  Proof. intro o. apply (step_no_panic zq0). exact G. Qed.

  (* statNodes and statSize are exact while the cache is open *)
  Theorem stats_exact_seq :
    s_closed s = false -> s_stat_nodes s = Z.of_nat (length (s_nodes s)) /\ s_stat_size s = size_sum (s_nodes s).
  Proof.
    intro Hc. unfold InvR in *. destruct (ri_stat _ _ _ _ _ _ _ _ _ HR Hc) as [A B]. split; auto.
    now rewrite size_sum_nsum.
  Qed.

  Theorem banned_never_readmitted_seq :
    forall ops n, In n (s_nodes s) -> n_lru n = LBanned ->
      forall n', In n' (s_nodes (run s ops)) -> n_id n' = n_id n ->
        n_lru n' = LBanned /\ ~ In (n_id n') (s_order (run s ops)) /\ keyof n' = keyof n.
  Proof.
    intros ops n Hn Hb n' Hn' Hid. unfold InvS in *.
    destruct (run_good zq0 ops s G) as [G' (_ & _ & E)].
    destruct (E n' Hn') as (m & Hm & i & k & b & _).
    { rewrite Hid. apply (si_fresh _ _ _ _ HS n Hn). }
    assert (m = n) as -> by (eapply same_id_eq; eauto; [apply (si_ids _ _ _ _ HS)|congruence]).
    split; [auto|]. split; [|auto].
    pose proof (inv_s _ _ _ (proj1 (proj1 G'))) as HS'. unfold InvS in HS'.
    intro Hin. apply (si_ord _ _ _ _ HS') in Hin. destruct Hin as (m' & Hm' & i' & r').
    assert (m' = n') as -> by (eapply same_id_eq; eauto; apply (si_ids _ _ _ _ HS')).
    unfold resident in r'. rewrite (b Hb) in r'. discriminate.
  Qed.
End Reachable.
