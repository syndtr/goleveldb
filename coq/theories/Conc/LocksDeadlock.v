(* Conc/LocksDeadlock.v — layer 3 of the proofs about Conc/Locks.v (fixed variant): the protocol invariant
   [inv2] (ack tickets, merge protocol, pause protocol, Close, transaction ownership) and the PROGRESS theorem:
   in every state that satisfies the lock-ownership invariant inv1 (proved for all reachable states in
   LocksProofs.v) and inv2, if some client is inside a call (or owns an open transaction) then some step that is
   not a client arrival is enabled.  Preservation of inv2 is proved in Conc/LocksInv.v for every step of a
   client (one lemma per label) and in Conc/LocksInvBg.v for the steps of the three background goroutines;
   Conc/LocksInvAll.v assembles them (inv2_reachable) and derives the unconditional no_deadlock. *)
From GL Require Import Conc.Locks Conc.LocksProofs.

Definition closer_phase (pc : cpc) : bool :=
  match pc with
  | CL1 | CL2 | CL3 | CL3b | CL4 | CL5 | CL6 | DC0 XClose | DC1 XClose | DC2 XClose | DC3 XClose | DC4 XClose => true
  | _ => false
  end.
Definition closer_early (pc : cpc) : bool := match pc with CL1 | CL2 => true | _ => false end.
Definition closer_after (pc : cpc) : bool := closer_phase pc && negb (closer_early pc).

(* where the owner of the open transaction can be *)
Definition owner_ok (pc : cpc) : bool :=
  match pc with
  | IdleTr | RetTr | OT5 _ | OT4b _ | OT6 _ | OT7 _ | OT7d _ | LB1 | LB2 | LB3 _ | LB4 | LB5
  | CM0 _ | CM1 _ | CM2 _ | CM3 _ | CM4 _ | CM5 _ _ | CM6 _ _ | CM6c _ | CM5f _ | CM7 _ | CM8 _ | CM8b _ | CM9 _
  | CMFu _ | CMF _
  | DC0 XUser | DC0 XLB | DC1 XUser | DC1 XLB | DC2 XUser | DC2 XLB
  | TP1 | TP2 | TP3
  | TrigS _ (SCmWc _) | TrigW _ (SCmWc _) => true
  | _ => false
  end.
(* the transaction the client works on is known to be open (tested under tr.lk) *)
Definition tropen_pc (pc : cpc) : bool :=
  match pc with
  | CM3 _ | CM4 _ | CM5 _ _ | CM6 _ _ | CM6c _ | CM5f _ | CM7 _ | CM8 _ | CM8b _ | CM9 _
  | TrigS _ (SCmWc _) | TrigW _ (SCmWc _) | DC2 _ | OT7d _ => true
  | _ => false
  end.
(* the lock holder may have merged writers waiting for it *)
Definition mergephase (pc : cpc) : bool :=
  match pc with
  | WM _ | WMs _ | WJ _ | WR _ | WU _
  | TrigS BM (SRot0 (RPost _)) | TrigW BM (SRot0 (RPost _)) | Rot1 (RPost _) | Rot2 (RPost _) => true
  | _ => false
  end.
(* inside OpenTransaction, after the closed test and before db.tr is set *)
Definition ot_phase (pc : cpc) : bool :=
  match pc with
  | OT1 _ | OT2 _ | OT3 _ | OT4 _ | Rot1 (ROt _) | Rot2 (ROt _)
  | TrigS _ (SRot0 (ROt _)) | TrigS _ (SRot2 (ROt _)) | TrigS _ (SOtFrozen _) | TrigS _ (SOtWc _)
  | TrigW _ (SRot0 (ROt _)) | TrigW _ (SRot2 (ROt _)) | TrigW _ (SOtFrozen _) | TrigW _ (SOtWc _) => true
  | _ => false
  end.
Definition is_WMs (pc : cpc) : bool := match pc with WMs _ => true | _ => false end.
Definition is_W23 (pc : cpc) : bool := match pc with W2 | W3 => true | _ => false end.
Definition is_trigw_any (pc : cpc) : bool := match pc with TrigW _ _ => true | _ => false end.

(* the labels the typing below asks about, compared with their argument -- except LSendCmd, of which only the
   addressee is compared: [lbl_is l (LSendCmd b XAck)] holds of every command sent to b *)
Definition lbl_is (a b : lbl) : bool :=
  match a, b with
  | LCasClosed x, LCasClosed y | LIfTrOpen x, LIfTrOpen y | LMergeRecv x, LMergeRecv y
  | LIfClosed x, LIfClosed y | LReadDbTr x, LReadDbTr y => Bool.eqb x y
  | LCloseChan, LCloseChan | LAcqWClose, LAcqWClose | LRelWTr, LRelWTr | LWToTr, LWToTr | LLockT, LLockT
  | LUnlockT, LUnlockT | LGiveW, LGiveW | LRelWU, LRelWU | LMergedTrue, LMergedTrue => true
  | LSendCmd b1 _, LSendCmd b2 _ => match b1, b2 with BM, BM | BT, BT => true | _, _ => false end
  | _, _ => false
  end.

Definition cedge2_ok (pc : cpc) (e : lbl * cpc) : bool :=
  let (l, pc') := e in
  (* closer *)
  implb (closer_phase pc') (closer_phase pc || lbl_is l (LCasClosed true)) &&
  implb (lbl_is l (LCasClosed true)) (negb (closer_phase pc) && closer_early pc') &&
  implb (closer_after pc') (closer_after pc || lbl_is l LCloseChan) &&
  implb (lbl_is l LCloseChan) (closer_early pc) &&
  implb (closer_early pc') (closer_early pc || lbl_is l (LCasClosed true)) &&
  implb (lbl_is l LAcqWClose) (closer_after pc && closer_has pc') &&
  implb (closer_early pc) (closer_early pc' || lbl_is l LCloseChan) &&
  implb (closer_has pc) (closer_has pc' || negb (closer_phase pc')) &&
  implb (in_close_ctx pc) (negb (owner_ok pc)) &&
  (* owner of the transaction *)
  implb (owner_ok pc) (owner_ok pc' || lbl_is l LRelWTr || lbl_is l (LIfTrOpen false)) &&
  implb (lbl_is l LWToTr) (owner_ok pc' && negb (cTl pc')) &&
  implb (lbl_is l LRelWTr) (negb (tropen_pc pc') && negb (owner_ok pc') && tropen_pc pc) &&
  implb (tropen_pc pc') (tropen_pc pc || lbl_is l (LIfTrOpen true)) &&
  implb (lbl_is l (LIfTrOpen true) || lbl_is l LRelWTr) (cTl pc) &&
  implb (cTl pc') (cTl pc || lbl_is l LLockT) &&
  implb (lbl_is l LUnlockT) (negb (cTl pc')) &&
  implb (cTl pc') (Bool.eqb (in_close_ctx pc') (in_close_ctx pc)) &&
  implb (ot_phase pc') (ot_phase pc || lbl_is l (LIfClosed false)) &&
  implb (lbl_is l LWToTr) (ot_phase pc) &&
  implb (lbl_is l (LReadDbTr true) || lbl_is l (LReadDbTr false)) (closer_after pc && negb (in_close_ctx pc)) &&
  implb (in_close_ctx pc') (closer_phase pc) &&
  (* merge protocol *)
  implb (mergephase pc) (mergephase pc' || lbl_is l LGiveW || lbl_is l LRelWU) &&
  implb (lbl_is l (LMergeRecv true)) (mergephase pc && is_WMs pc') &&
  implb (lbl_is l (LMergeRecv false)) (mergephase pc && negb (is_WMs pc')) &&
  implb (is_WMs pc') (lbl_is l (LMergeRecv true)) &&
  implb (is_WMs pc) (lbl_is l LMergedTrue) &&
  implb (lbl_is l LMergedTrue) (is_WMs pc) &&
  negb (is_W23 pc') && negb (is_W23 pc) &&
  (* acks *)
  implb (is_trigw_any pc')
        (match pc' with TrigW b _ => lbl_is l (LSendCmd b XAck) | _ => false end) &&
  match l with LSendCmd b k => negb (match k with XNo => true | _ => false end) && is_trigw b pc' && negb (is_trigw_any pc) | _ => true end.

Lemma cedges2_ok : forall pc, forallb (cedge2_ok pc) (cedges fixed pc) = true.
Proof. intro pc; destruct pc; dparams; reflexivity. Qed.

(* cedge2_ok in Prop, one field per conjunct ([cedge2_typed]) *)
Record ctyped (pc : cpc) (l : lbl) (pc' : cpc) : Prop := {
  ct_phase : closer_phase pc' = true -> closer_phase pc = true \/ lbl_is l (LCasClosed true) = true;
  ct_cas : lbl_is l (LCasClosed true) = true -> closer_phase pc = false /\ closer_early pc' = true;
  ct_after : closer_after pc' = true -> closer_after pc = true \/ lbl_is l LCloseChan = true;
  ct_chan : lbl_is l LCloseChan = true -> closer_early pc = true;
  ct_early' : closer_early pc' = true -> closer_early pc = true \/ lbl_is l (LCasClosed true) = true;
  ct_acqclose : lbl_is l LAcqWClose = true -> closer_after pc = true /\ closer_has pc' = true;
  ct_early : closer_early pc = true -> closer_early pc' = true \/ lbl_is l LCloseChan = true;
  ct_has : closer_has pc = true -> closer_has pc' = true \/ closer_phase pc' = false;
  ct_ctx_owner : in_close_ctx pc = true -> owner_ok pc = false;
  ct_owner : owner_ok pc = true ->
             owner_ok pc' = true \/ lbl_is l LRelWTr = true \/ lbl_is l (LIfTrOpen false) = true;
  ct_wtotr : lbl_is l LWToTr = true -> owner_ok pc' = true /\ cTl pc' = false;
  ct_reltr : lbl_is l LRelWTr = true -> tropen_pc pc' = false /\ owner_ok pc' = false /\ tropen_pc pc = true;
  ct_tropen : tropen_pc pc' = true -> tropen_pc pc = true \/ lbl_is l (LIfTrOpen true) = true;
  ct_under_tl : lbl_is l (LIfTrOpen true) || lbl_is l LRelWTr = true -> cTl pc = true;
  ct_cTl : cTl pc' = true -> cTl pc = true \/ lbl_is l LLockT = true;
  ct_unlockt : lbl_is l LUnlockT = true -> cTl pc' = false;
  ct_ctx : cTl pc' = true -> in_close_ctx pc' = in_close_ctx pc;
  ct_ot : ot_phase pc' = true -> ot_phase pc = true \/ lbl_is l (LIfClosed false) = true;
  ct_wtotr_ot : lbl_is l LWToTr = true -> ot_phase pc = true;
  ct_readdbtr : lbl_is l (LReadDbTr true) || lbl_is l (LReadDbTr false) = true ->
                closer_after pc = true /\ in_close_ctx pc = false;
  ct_ctx_phase : in_close_ctx pc' = true -> closer_phase pc = true;
  ct_merge : mergephase pc = true -> mergephase pc' = true \/ lbl_is l LGiveW = true \/ lbl_is l LRelWU = true;
  ct_recv_fits : lbl_is l (LMergeRecv true) = true -> mergephase pc = true /\ is_WMs pc' = true;
  ct_recv_over : lbl_is l (LMergeRecv false) = true -> mergephase pc = true /\ is_WMs pc' = false;
  ct_WMs' : is_WMs pc' = true -> lbl_is l (LMergeRecv true) = true;
  ct_WMs : is_WMs pc = true -> lbl_is l LMergedTrue = true;
  ct_mergedtrue : lbl_is l LMergedTrue = true -> is_WMs pc = true;
  ct_W23' : is_W23 pc' = false;
  ct_W23 : is_W23 pc = false;
  ct_trigw : forall b, is_trigw b pc' = true -> lbl_is l (LSendCmd b XAck) = true;
  ct_sendcmd : match l with
               | LSendCmd b k => k <> XNo /\ is_trigw b pc' = true /\ is_trigw_any pc = false
               | _ => True
               end
}.

Lemma cedge2_typed : forall pc l pc', cedge2_ok pc (l, pc') = true -> ctyped pc l pc'.
Proof.
  intros pc l pc' EK. unfold cedge2_ok in EK.
  apply andb_prop in EK as [EK C31]. apply andb_prop in EK as [EK C30]. apply andb_prop in EK as [EK C29].
  apply andb_prop in EK as [EK C28]. apply andb_prop in EK as [EK C27]. apply andb_prop in EK as [EK C26].
  apply andb_prop in EK as [EK C25]. apply andb_prop in EK as [EK C24]. apply andb_prop in EK as [EK C23].
  apply andb_prop in EK as [EK C22]. apply andb_prop in EK as [EK C21]. apply andb_prop in EK as [EK C20].
  apply andb_prop in EK as [EK C19]. apply andb_prop in EK as [EK C18]. apply andb_prop in EK as [EK C17].
  apply andb_prop in EK as [EK C16]. apply andb_prop in EK as [EK C15]. apply andb_prop in EK as [EK C14].
  apply andb_prop in EK as [EK C13]. apply andb_prop in EK as [EK C12]. apply andb_prop in EK as [EK C11].
  apply andb_prop in EK as [EK C10]. apply andb_prop in EK as [EK C9]. apply andb_prop in EK as [EK C8].
  apply andb_prop in EK as [EK C7]. apply andb_prop in EK as [EK C6]. apply andb_prop in EK as [EK C5].
  apply andb_prop in EK as [EK C4]. apply andb_prop in EK as [EK C3]. apply andb_prop in EK as [EK C2].
  rename EK into C1.
  constructor.
  - exact (implb_or _ _ _ C1).
  - intro X. destruct (implb_and _ _ _ C2 X) as [A B]. apply negb_true_iff in A. auto.
  - exact (implb_or _ _ _ C3).
  - exact (implb_elim _ _ C4).
  - exact (implb_or _ _ _ C5).
  - exact (implb_and _ _ _ C6).
  - exact (implb_or _ _ _ C7).
  - intro X. destruct (implb_or _ _ _ C8 X) as [A | A]; auto. apply negb_true_iff in A. auto.
  - intro X. apply negb_true_iff. exact (implb_elim _ _ C9 X).
  - intro X. destruct (implb_or _ _ _ C10 X) as [A | A]; auto. apply orb_prop in A. tauto.
  - intro X. destruct (implb_and _ _ _ C11 X) as [A B]. apply negb_true_iff in B. auto.
  - intro X. destruct (implb_and _ _ _ C12 X) as [A B]. apply andb_prop in A. destruct A as [A1 A2].
    apply negb_true_iff in A1. apply negb_true_iff in A2. auto.
  - exact (implb_or _ _ _ C13).
  - exact (implb_elim _ _ C14).
  - exact (implb_or _ _ _ C15).
  - intro X. apply negb_true_iff. exact (implb_elim _ _ C16 X).
  - intro X. apply Bool.eqb_prop. exact (implb_elim _ _ C17 X).
  - exact (implb_or _ _ _ C18).
  - exact (implb_elim _ _ C19).
  - intro X. destruct (implb_and _ _ _ C20 X) as [A B]. apply negb_true_iff in B. auto.
  - exact (implb_elim _ _ C21).
  - intro X. destruct (implb_or _ _ _ C22 X) as [A | A]; auto. apply orb_prop in A. tauto.
  - exact (implb_and _ _ _ C23).
  - intro X. destruct (implb_and _ _ _ C24 X) as [A B]. apply negb_true_iff in B. auto.
  - exact (implb_elim _ _ C25).
  - exact (implb_elim _ _ C26).
  - exact (implb_elim _ _ C27).
  - apply negb_true_iff. exact C28.
  - apply negb_true_iff. exact C29.
  - intros b X. destruct pc'; try discriminate X. destruct b0, b; try discriminate X; exact C30.
  - destruct l; try exact I. apply andb_prop in C31. destruct C31 as [A A3]. apply andb_prop in A. destruct A as [A1 A2].
    apply negb_true_iff in A3. repeat split; auto. intro; subst k; discriminate.
Qed.

Definition m_exited (pc : mpc) : bool := match pc with MXu | MX | MDone => true | _ => false end.
Definition t_exited (pc : tpc) : bool := match pc with TXu | TX | TDone => true | _ => false end.
Definition mpaused (pc : mpc) : bool :=
  match pc with
  | MB true | MB1 true | MBs true _ | MC true | MD true | MD1 true | MDs true _ | ME true | MF true => true
  | _ => false
  end.
Definition is_TP (pc : tpc) : bool := match pc with TP _ => true | _ => false end.
(* tCompaction holds no command of its own here *)
Definition tx_none_pc (pc : tpc) : bool :=
  match pc with
  | T0 | T1 | T1b | T2a | T2 | T3 XNo | T4 | TB false | TB1 false | TBs false _ | TC false | TD false | TD1 false
  | TDs false _ | TE false | TQ _ | TP KT0 | TP (KTB1 false) | TDone => true
  | _ => false
  end.

(* The protocol invariant.  g1-g12, l3n, l4, u1 speak of the shared state and the background goroutines; the other
   l-fields are one fact per client.  The proofs work with the same facts split that way: [glob] and, per client,
   [loc] (together inv2', which gives inv2 by inv2_of_parts). *)
Record inv2 (s : state) : Prop := {
  g1 : closeC s = true -> closed s = true;
  g2 : ce s = E_done -> closeC s = true;
  g3 : locking s = true -> ce s = E_per;
  g4 : m_exited (mc s) = true -> ce s = E_per \/ closed s = true;
  g5 : t_exited (tc s) = true -> ce s = E_per \/ closed s = true;
  g6 : closed s = true -> closeC s = false -> exists i, closer_early (cli s i) = true;
  g7a : is_TP (tc s) = true -> mpaused (mc s) = true \/ m_exited (mc s) = true;
  g7b : mpaused (mc s) = true -> is_TP (tc s) = true \/ closeC s = true;
  g8 : (mc s = M0 \/ mc s = MDone) -> mx s = None;
  g9a : tx_none_pc (tc s) = true -> tx s = None;
  g9b : (tc s = T2 \/ tc s = TDone) -> tq s = [];
  g10 : wl s = WTr <-> trown s <> None;
  g11 : wl s = WClosed -> closeC s = true;
  g12 : closetgt s <> None -> closed s = true;
  l1 : forall i, is_trigw BM (cli s i) = true -> mx s = Some (i, ctk s i);
  l2 : forall i, is_trigw BT (cli s i) = true -> tx s = Some (i, ctk s i) \/ In (i, ctk s i) (tq s);
  l3a : forall i, cli s i = W2 <-> pend s = Some i;
  l3b : forall i, cli s i = W3 <-> In i (merged s);
  l3n : NoDup (merged s);
  l4 : (pend s <> None \/ merged s <> []) -> exists h, wl s = WHeld (PCli h) /\ mergephase (cli s h) = true;
  l4b : forall h, is_WMs (cli s h) = true -> pend s <> None;
  l5a : forall i, closer_phase (cli s i) = true -> closed s = true;
  l5b : forall i, closer_after (cli s i) = true -> closeC s = true;
  l8 : forall i, closer_phase (cli s i) = true -> closer_has (cli s i) = false -> wl s <> WClosed;
  u1 : forall i j, closer_phase (cli s i) = true -> closer_phase (cli s j) = true -> i = j;
  l6a : forall i, cTl (cli s i) = true -> tr_current s i = true -> tl s = Some i;
  l6 : forall i, tropen_pc (cli s i) = true -> tr_current s i = true;
  l7 : forall o, trown s = Some o -> owner_ok (cli s o) = true;
  l9 : forall o, closetgt s = Some o -> ot_phase (cli s o) = false
}.

(* tr_current as a function of the client's own program counter *)
Definition trc (s : state) (j : nat) (pc : cpc) : bool :=
  match (if in_close_ctx pc then closetgt s else Some j) with
  | Some o => onat_eqb (trown s) (Some o)
  | None => false
  end.
Lemma tr_current_trc : forall s j, tr_current s j = trc s j (cli s j).
Proof. reflexivity. Qed.

(* the facts about one client: they mention the rest of the state but no other client's program counter *)
Record loc (s : state) (j : nat) (pc : cpc) : Prop := {
  lc1 : is_trigw BM pc = true -> mx s = Some (j, ctk s j);
  lc2 : is_trigw BT pc = true -> tx s = Some (j, ctk s j) \/ In (j, ctk s j) (tq s);
  lc3a : pc = W2 <-> pend s = Some j;
  lc3b : pc = W3 <-> In j (merged s);
  lc4b : is_WMs pc = true -> pend s <> None;
  lc5a : closer_phase pc = true -> closed s = true;
  lc5b : closer_after pc = true -> closeC s = true;
  lc8 : closer_phase pc = true -> closer_has pc = false -> wl s <> WClosed;
  lc6a : cTl pc = true -> trc s j pc = true -> tl s = Some j;
  lc6 : tropen_pc pc = true -> trc s j pc = true;
  lc7 : trown s = Some j -> owner_ok pc = true;
  lc9 : closetgt s = Some j -> ot_phase pc = false
}.

Record glob (s : state) : Prop := {
  gg1 : closeC s = true -> closed s = true;
  gg2 : ce s = E_done -> closeC s = true;
  gg3 : locking s = true -> ce s = E_per;
  gg4 : m_exited (mc s) = true -> ce s = E_per \/ closed s = true;
  gg5 : t_exited (tc s) = true -> ce s = E_per \/ closed s = true;
  gg6 : closed s = true -> closeC s = false -> exists i, closer_early (cli s i) = true;
  gg7a : is_TP (tc s) = true -> mpaused (mc s) = true \/ m_exited (mc s) = true;
  gg7b : mpaused (mc s) = true -> is_TP (tc s) = true \/ closeC s = true;
  gg8 : (mc s = M0 \/ mc s = MDone) -> mx s = None;
  gg9a : tx_none_pc (tc s) = true -> tx s = None;
  gg9b : (tc s = T2 \/ tc s = TDone) -> tq s = [];
  gg10 : wl s = WTr <-> trown s <> None;
  gg11 : wl s = WClosed -> closeC s = true;
  gg12 : closetgt s <> None -> closed s = true;
  gg3n : NoDup (merged s);
  ggl4 : (pend s <> None \/ merged s <> []) -> exists h, wl s = WHeld (PCli h) /\ mergephase (cli s h) = true;
  ggu1 : forall i j, closer_phase (cli s i) = true -> closer_phase (cli s j) = true -> i = j
}.

Definition inv2' (s : state) : Prop := glob s /\ forall j, loc s j (cli s j).

Lemma inv2_of_parts : forall s, inv2' s -> inv2 s.
Proof.
  intros s [Gl L]. destruct Gl.
  constructor; auto; intros.
  - apply (lc1 _ _ _ (L i)); auto.
  - apply (lc2 _ _ _ (L i)); auto.
  - apply (lc3a _ _ _ (L i)).
  - apply (lc3b _ _ _ (L i)).
  - apply (lc4b _ _ _ (L h)); auto.
  - apply (lc5a _ _ _ (L i)); auto.
  - apply (lc5b _ _ _ (L i)); auto.
  - apply (lc8 _ _ _ (L i)); auto.
  - apply (lc6a _ _ _ (L i)); auto.
  - rewrite tr_current_trc. apply (lc6 _ _ _ (L i)); auto.
  - apply (lc7 _ _ _ (L o)); auto.
  - apply (lc9 _ _ _ (L o)); auto.
Qed.

Lemma inv2'_init : inv2' init.
Proof.
  split.
  - constructor; simpl; intros; try discriminate; auto; try (intuition congruence).
    constructor.
  - intro j. constructor; simpl; intros; try discriminate; auto;
      try (split; intros; try discriminate; try contradiction).
Qed.

(* some step that is not an arrival is enabled.  The STRICT reading (st = Strict) also excludes every step of a
   client that stands at IdleTr (the owner of a Transaction handle starting Commit / Discard): used for the
   closing phase, where -- after repair fb021ae -- nobody has to wait for such an owner. *)
Definition at_idletr (s : state) (a : action) : bool :=
  match a with ACli i _ _ => match cli s i with IdleTr => true | _ => false end | _ => false end.
Inductive rmode := Loose | Strict.
Lemma rmode_cases : forall m : rmode, m = Loose \/ m = Strict.
Proof. destruct m; auto. Qed.
Definition Gs (st : rmode) (s : state) : Prop :=
  exists a, is_arrival fixed s a = false /\ (st = Strict -> at_idletr s a = false) /\ exists s', step fixed s a = Some s'.

Section Progress.
Variable st : rmode.
Local Notation G := (Gs st).

Lemma G_m : forall s k l pc' s1,
  nth_error (medges (mc s)) k = Some (l, pc') -> lsem fixed PM l 0 s = Some s1 -> G s.
Proof.
  intros s k l pc' s1 N L. exists (AM k). split; [reflexivity|]. split; [reflexivity|]. simpl. rewrite N, L. eauto.
Qed.
Lemma G_t : forall s k l pc' s1,
  nth_error (tedges (tc s)) k = Some (l, pc') -> lsem fixed PT l 0 s = Some s1 -> G s.
Proof.
  intros s k l pc' s1 N L. exists (AT k). split; [reflexivity|]. split; [reflexivity|]. simpl. rewrite N, L. eauto.
Qed.
Lemma G_c : forall s i k arg l pc' s1,
  nth_error (cedges fixed (cli s i)) k = Some (l, pc') -> lsem fixed (PCli i) l arg s = Some s1 ->
  cli s i <> Idle -> (cli s i = IdleTr -> pc' <> TP1) -> (st = Strict -> cli s i <> IdleTr) -> G s.
Proof.
  intros s i k arg l pc' s1 N L NI NT NS. exists (ACli i k arg). split; [| split].
  - simpl. destruct (cli s i) eqn:E; try reflexivity; try congruence.
    change (match nth_error (cedges fixed IdleTr) k with Some (_, TP1) => true | _ => false end = false).
    rewrite N. destruct pc'; try reflexivity. exfalso; apply NT; auto.
  - intro S. simpl. specialize (NS S). destruct (cli s i); try reflexivity. congruence.
  - simpl. rewrite N, L. eauto.
Qed.

(* try the k-th edge of mCompaction / tCompaction *)
Ltac m_act k := eapply (G_m _ k); [match goal with H : mc _ = _ |- _ => rewrite H end; reflexivity
                                  | simpl; unfold guard; repeat match goal with H : _ = _ |- _ => rewrite H end; simpl; reflexivity].
Ltac t_act k := eapply (G_t _ k); [match goal with H : tc _ = _ |- _ => rewrite H end; reflexivity
                                  | simpl; unfold guard; repeat match goal with H : _ = _ |- _ => rewrite H end; simpl; reflexivity].

Lemma ce_quiet : forall s, inv2 s -> G s \/ (closeC s = true -> ce s = E_done).
Proof.
  intros s I2. destruct (closeC s) eqn:HC; [| right; discriminate].
  destruct (ce s) eqn:HE; try (right; reflexivity); left;
    (exists (ACE 1); split; [reflexivity | split; [reflexivity | simpl; unfold step_ce, guard; rewrite HE, HC; eauto]]).
Qed.

Lemma mf_dec : forall m, m = MF true \/ m <> MF true.
Proof. destruct m; try (right; discriminate). destruct p; [left; reflexivity | right; discriminate]. Qed.

Lemma t_quiet : forall s, inv1 s -> inv2 s -> cl s = None ->
  G s \/ (tc s = T2 /\ closeC s = false) \/ (is_TP (tc s) = true /\ closeC s = false /\ mc s <> MF true) \/ tc s = TDone.
Proof.
  intros s I1 I2 HCL.
  assert (HTC : tC (tc s) = false).
  { destruct I1 as [_ _ _ _ _ _ ICT _ _ _ _]. rewrite <- ICT. unfold cl_is. rewrite HCL. reflexivity. }
  destruct (tc s) eqn:HT; dparams; simpl in HTC; try discriminate;
    try (solve [left; first [t_act 0 | t_act 1]]);
    try (solve [destruct (closed s) eqn:HD; left; first [t_act 0 | t_act 1]]);
    try (solve [destruct (tq s) eqn:HQ; left; first [t_act 0 | t_act 1]]);
    try (solve [left; destruct (ce s) eqn:HE; [t_act 0 | t_act 0 | t_act 1 | pose proof (g2 s I2 HE) as HC; t_act 2]]);
    try (solve [right; right; right; reflexivity]).
  (* T2 and the pause points: only closeC wakes tCompaction, or mCompaction's resume *)
  all: destruct (closeC s) eqn:HC; [left; t_act 0 |].
  all: try (solve [right; left; split; reflexivity]).
  all: destruct (mf_dec (mc s)) as [HM | HM];
         [left; eapply (G_m _ 0); [rewrite HM; reflexivity | simpl; rewrite HT; reflexivity]
         | right; right; left; repeat split; auto].
Qed.

Lemma m_quiet : forall s, inv1 s -> inv2 s -> cl s = None -> (closed s = true -> closeC s = true) ->
  ((tc s = T2 /\ closeC s = false) \/ (is_TP (tc s) = true /\ closeC s = false /\ mc s <> MF true) \/ tc s = TDone) ->
  G s \/ (mc s = M0 /\ closeC s = false) \/ mc s = MDone.
Proof.
  intros s I1 I2 HCL HCD TQ.
  assert (HMC : mC (mc s) = false).
  { destruct I1 as [_ _ _ _ _ ICM _ _ _ _ _]. rewrite <- ICM. unfold cl_is. rewrite HCL. reflexivity. }
  destruct (mc s) eqn:HM; dparams; simpl in HMC; try discriminate;
    try (solve [left; m_act 0]);
    try (solve [left; destruct (closed s) eqn:HD; [m_act 0 | m_act 1]]);
    try (solve [left; destruct (ce s) eqn:HE; [m_act 0 | m_act 0 | m_act 1 | pose proof (g2 s I2 HE) as HC; m_act 2]]);
    try (solve [left; eapply (G_m _ 0); [rewrite HM; reflexivity | reflexivity]]).
  - (* M0 *) destruct (closeC s) eqn:HC; [left; m_act 0 | right; left; auto].
  - (* MP *)
    destruct (closeC s) eqn:HC; [left; m_act 2|].
    destruct (ce s) eqn:HE; try (left; m_act 1); [| | exfalso; pose proof (g2 s I2 HE); congruence];
      (destruct TQ as [[HT _] | [[HT _] | HT]];
       [ left; eapply (G_m _ 0); [rewrite HM; reflexivity | simpl; rewrite HT; reflexivity]
       | exfalso; destruct (g7a s I2 HT) as [X | X]; rewrite HM in X; discriminate
       | exfalso; assert (X : t_exited (tc s) = true) by (rewrite HT; reflexivity);
         destruct (g5 s I2 X) as [Y | Y]; [congruence | specialize (HCD Y); congruence] ]).
  - (* MF true *)
    destruct TQ as [[HT _] | [[HT [_ X]] | HT]]; [| exfalso; apply X; reflexivity |];
      (destruct (g7b s I2) as [Y | Y]; [rewrite HM; reflexivity | rewrite HT in Y; discriminate | left; m_act 1]).
  - (* MDone *) right; right; reflexivity.
Qed.

Ltac c_act i k arg :=
  eapply (G_c _ i k arg);
  [ match goal with H : cli _ i = _ |- _ => rewrite H end; reflexivity
  | simpl; unfold guard; repeat match goal with H : _ = _ |- _ => rewrite H end; simpl;
    first [ reflexivity
          | unfold wl_is, cl_is, wl_free; repeat match goal with H : _ = _ |- _ => rewrite H end; simpl;
            rewrite ?Nat.eqb_refl; simpl; reflexivity ]
  | match goal with H : cli _ i = _ |- _ => rewrite H end; discriminate
  | match goal with H : cli _ i = _ |- _ => rewrite H end; first [discriminate | intros _; discriminate]
  | first [ intros _; match goal with H : cli _ i = _ |- _ => rewrite H end; discriminate
          | match goal with H : cli _ i = _ |- _ => rewrite H end; assumption | assumption ] ].

Lemma cl_holder_moves : forall s p, inv1 s -> inv2 s -> cl s = Some p -> G s.
Proof.
  intros s p I1 I2 HCL.
  destruct p as [i | | |].
  - assert (HC : cC (cli s i) = true).
    { destruct I1 as [_ _ _ _ IC _ _ _ _ _ _]. rewrite <- IC. unfold cl_is. rewrite HCL. simpl. apply Nat.eqb_refl. }
    destruct (cli s i) eqn:Hpc; simpl in HC; try discriminate.
    + c_act i 1 0.
    + c_act i 0 0.
    + c_act i 0 0.
    + c_act i 0 0.
    + c_act i 0 0.
    + c_act i 0 0.
  - assert (HC : mC (mc s) = true).
    { destruct I1 as [_ _ _ _ _ ICM _ _ _ _ _]. rewrite <- ICM. unfold cl_is. rewrite HCL. reflexivity. }
    destruct (mc s) eqn:HM; simpl in HC; try discriminate.
    + destruct (closed s) eqn:HD; [m_act 0 | m_act 1].
    + m_act 1.
    + destruct (ce s) eqn:HE; [m_act 0 | m_act 0 | m_act 1 | pose proof (g2 s I2 HE) as HCC; m_act 2].
    + eapply (G_m _ 0); [rewrite HM; reflexivity | simpl; unfold guard, cl_is; rewrite HCL; reflexivity].
    + eapply (G_m _ 0); [rewrite HM; reflexivity | simpl; unfold guard, cl_is; rewrite HCL; reflexivity].
  - assert (HC : tC (tc s) = true).
    { destruct I1 as [_ _ _ _ _ _ ICT _ _ _ _]. rewrite <- ICT. unfold cl_is. rewrite HCL. reflexivity. }
    destruct (tc s) eqn:HT; simpl in HC; try discriminate.
    + destruct (closed s) eqn:HD; [t_act 0 | t_act 1].
    + t_act 1.
    + destruct (ce s) eqn:HE; [t_act 0 | t_act 0 | t_act 1 | pose proof (g2 s I2 HE) as HCC; t_act 2].
    + eapply (G_t _ 0); [rewrite HT; reflexivity | simpl; unfold guard, cl_is; rewrite HCL; reflexivity].
    + eapply (G_t _ 0); [rewrite HT; reflexivity | simpl; unfold guard, cl_is; rewrite HCL; reflexivity].
  - exfalso. destruct I1 as [_ _ _ _ _ _ _ ICCE _ _ _]. unfold cl_is in ICCE. rewrite HCL in ICCE. discriminate.
Qed.

Lemma closer_early_moves : forall s i, closer_early (cli s i) = true -> G s.
Proof.
  intros s i H. destruct (cli s i) eqn:Hpc; simpl in H; try discriminate.
  - c_act i 0 0.
  - c_act i 0 0.
Qed.

Record quiet (s : state) : Prop := {
  q_cl : cl s = None;
  q_cd : closed s = true -> closeC s = true;
  q_m : (mc s = M0 /\ closeC s = false) \/ mc s = MDone;
  q_t : (tc s = T2 /\ closeC s = false) \/ (is_TP (tc s) = true /\ closeC s = false /\ mc s <> MF true) \/ tc s = TDone;
  q_ce : closeC s = true -> ce s = E_done
}.

Lemma to_quiet : forall s, inv1 s -> inv2 s -> G s \/ quiet s.
Proof.
  intros s I1 I2.
  destruct (cl s) as [p|] eqn:HCL; [left; eapply cl_holder_moves; eauto|].
  assert (CD : G s \/ (closed s = true -> closeC s = true)).
  { destruct (closed s) eqn:HD; [| right; discriminate].
    destruct (closeC s) eqn:HC; [right; auto|].
    destruct (g6 s I2 HD HC) as [i Hi]. left. eapply closer_early_moves; eauto. }
  destruct CD as [X | CD]; [left; exact X|].
  destruct (ce_quiet s I2) as [X | CE]; [left; exact X|].
  destruct (t_quiet s I1 I2 HCL) as [X | TQ]; [left; exact X|].
  destruct (m_quiet s I1 I2 HCL CD TQ) as [X | MQ]; [left; exact X|].
  right. constructor; auto.
Qed.

(* after an exit of a compaction goroutine the waiting select has an enabled error / close case *)
Lemma exited_gives : forall s, inv2 s -> quiet s ->
  (m_exited (mc s) = true \/ t_exited (tc s) = true) -> ce s = E_per \/ closeC s = true.
Proof.
  intros s I2 Q [H | H].
  - destruct (g4 s I2 H) as [X | X]; auto. right. apply (q_cd s Q X).
  - destruct (g5 s I2 H) as [X | X]; auto. right. apply (q_cd s Q X).
Qed.

Lemma trig_moves : forall s i b s0, inv1 s -> inv2 s -> quiet s ->
  (cli s i = TrigS b s0 \/ cli s i = TrigW b s0) -> G s.
Proof.
  intros s i b s0 I1 I2 Q [Hpc | Hpc].
  - (* first select *)
    destruct b.
    + destruct (q_m s Q) as [[HM HC] | HM].
      * eapply (G_c _ i 0 0); [rewrite Hpc; reflexivity | | rewrite Hpc; discriminate | rewrite Hpc; discriminate | intros _; rewrite Hpc; discriminate].
        simpl. rewrite HM. reflexivity.
      * destruct (exited_gives s I2 Q) as [HE | HC]; [left; rewrite HM; reflexivity | c_act i 1 0 | c_act i 2 0].
    + destruct (q_t s Q) as [[HT HC] | [[HT [HC _]] | HT]].
      * eapply (G_c _ i 0 0); [rewrite Hpc; reflexivity | | rewrite Hpc; discriminate | rewrite Hpc; discriminate | intros _; rewrite Hpc; discriminate].
        simpl. rewrite HT. simpl. reflexivity.
      * assert (X : m_exited (mc s) = true).
        { destruct (g7a s I2 HT) as [X | X]; auto. destruct (q_m s Q) as [[HM _] | HM]; rewrite HM in X; discriminate. }
        destruct (exited_gives s I2 Q) as [HE | HC']; [left; auto | c_act i 1 0 | c_act i 2 0].
      * destruct (exited_gives s I2 Q) as [HE | HC]; [right; rewrite HT; reflexivity | c_act i 1 0 | c_act i 2 0].
  - (* second select *)
    destruct b.
    + exfalso. assert (X : is_trigw BM (cli s i) = true) by (rewrite Hpc; reflexivity).
      pose proof (l1 s I2 i X) as Y.
      assert (Z : mx s = None) by (apply (g8 s I2); destruct (q_m s Q) as [[HM _] | HM]; auto).
      congruence.
    + assert (X : is_trigw BT (cli s i) = true) by (rewrite Hpc; reflexivity).
      pose proof (l2 s I2 i X) as Y.
      destruct (q_t s Q) as [[HT HC] | [[HT [HC _]] | HT]].
      * exfalso. assert (Z1 : tx s = None) by (apply (g9a s I2); rewrite HT; reflexivity).
        assert (Z2 : tq s = []) by (apply (g9b s I2); auto).
        destruct Y as [Y | Y]; [congruence | rewrite Z2 in Y; destruct Y].
      * assert (X' : m_exited (mc s) = true).
        { destruct (g7a s I2 HT) as [X' | X']; auto. destruct (q_m s Q) as [[HM _] | HM]; rewrite HM in X'; discriminate. }
        destruct (exited_gives s I2 Q) as [HE | HC']; [left; auto | c_act i 0 0 | c_act i 1 0].
      * exfalso. assert (Z1 : tx s = None) by (apply (g9a s I2); rewrite HT; reflexivity).
        assert (Z2 : tq s = []) by (apply (g9b s I2); auto).
        destruct Y as [Y | Y]; [congruence | rewrite Z2 in Y; destruct Y].
Qed.

Lemma reltr_enabled : forall s i arg, inv2 s -> tropen_pc (cli s i) = true ->
  lsem fixed (PCli i) LRelWTr arg s = Some (set_trown (set_wl s WFree) None).
Proof.
  intros s i arg I2 H. pose proof (l6 s I2 i H) as TC.
  assert (W : wl s = WTr).
  { apply (g10 s I2). unfold tr_current in TC. destruct (my_tr s i); [| discriminate].
    destruct (trown s); [discriminate | simpl in TC; discriminate]. }
  simpl. rewrite W, TC. reflexivity.
Qed.

Lemma existsb_nth : forall {A} (f : A -> bool) l, existsb f l = true ->
  exists k x, nth_error l k = Some x /\ f x = true.
Proof.
  induction l as [| y l IH]; simpl; intro H; [discriminate|].
  destruct (f y) eqn:E; [exists 0, y; auto|]. destruct (IH H) as (k & x & N & F). exists (S k), x; auto.
Qed.
Lemma has_lbl_nth : forall {P} l (es : list (lbl * P)), has_lbl l es = true -> exists k pc', nth_error es k = Some (l, pc').
Proof.
  intros P l es H. destruct (existsb_nth _ _ H) as (k & [l0 pc'] & N & E). exists k, pc'.
  replace l with l0; auto. destruct l0; simpl in E; try discriminate E; destruct l; try discriminate E;
    try reflexivity; apply Bool.eqb_prop in E; subst; reflexivity.
Qed.

(* layer 2 says which program counters are no waits; here: why their edges are enabled.  A label that never
   blocks has no guard, or one that the lock-ownership invariant and the edge typing discharge *)
Lemma never_blocks_enabled : forall s i k l pc' arg, inv1 s -> inv2 s ->
  nth_error (cedges fixed (cli s i)) k = Some (l, pc') -> never_blocks l = true ->
  exists s1, lsem fixed (PCli i) l arg s = Some s1.
Proof.
  intros s i k l pc' arg I1 I2 N NB.
  pose proof (nth_forallb _ _ _ _ (cedges1_ok _) N) as E1.
  pose proof (cedge2_typed _ _ _ (nth_forallb _ _ _ _ (cedges2_ok _) N)) as T.
  destruct l; try discriminate NB; simpl; eauto.
  - (* LRelW *) rewrite (i1_W s I1), (proj1 (cedge1_dW _ _ _ _ _ E1 eq_refl)). simpl; eauto.
  - (* LWToTr *) rewrite (i1_W s I1), (proj1 (cedge1_dW _ _ _ _ _ E1 eq_refl)). simpl; eauto.
  - (* LRelWTr *) eexists. apply (reltr_enabled s i arg I2). apply (ct_reltr _ _ _ T eq_refl).
  - (* LUnlockC *) rewrite (i1_C s I1), (proj1 (cedge1_dC _ _ _ _ _ E1 eq_refl)). simpl; eauto.
  - (* LUnlockT *) destruct (onat_eqb (tl s) (Some i)); eauto.
  - (* LTrySendCmd *) destruct b; eauto.
  - (* LEnqueue: no label of a client *) discriminate E1.
Qed.

(* of the two outcomes of a test one is enabled *)
Lemma test_pair_enabled : forall s i, has_test_pair (cedges fixed (cli s i)) = true ->
  exists k l pc' s1, nth_error (cedges fixed (cli s i)) k = Some (l, pc') /\ lsem fixed (PCli i) l 0 s = Some s1.
Proof.
  intros s i H. unfold has_test_pair in H.
  repeat (apply orb_prop in H; destruct H as [H | H]); apply andb_prop in H; destruct H as [H1 H2];
    apply has_lbl_nth in H1; apply has_lbl_nth in H2; destruct H1 as (k1 & p1 & N1); destruct H2 as (k2 & p2 & N2).
  - destruct (closed s) eqn:E; [exists k1 | exists k2]; do 3 eexists; (split; [eassumption | simpl; rewrite E; reflexivity]).
  - destruct (closed s) eqn:E; [exists k2 | exists k1]; do 3 eexists; (split; [eassumption | simpl; rewrite E; reflexivity]).
  - destruct (trown s) eqn:E; [exists k1 | exists k2]; do 3 eexists; (split; [eassumption | simpl; rewrite E; reflexivity]).
  - destruct (tr_current s i) eqn:E; [exists k1 | exists k2]; do 3 eexists; (split; [eassumption | simpl; rewrite E; reflexivity]).
  - destruct (closeC s) eqn:E; [exists k1 | exists k2]; do 3 eexists; (split; [eassumption | simpl; rewrite E; reflexivity]).
Qed.

(* program counters at which a client neither waits for the write lock nor is a passive partner *)
Definition active_pc (pc : cpc) : bool :=
  match pc with Idle | W1 _ | OT1 _ | CR1 | RO1 | CL4 | W2 | W3 => false | _ => true end.

Lemma active_moves : forall s i, inv1 s -> inv2 s -> quiet s ->
  active_pc (cli s i) = true -> (tl s = None \/ cTl (cli s i) = true) -> (st = Strict -> cli s i <> IdleTr) -> G s.
Proof.
  intros s i I1 I2 Q HA HT HNI.
  pose proof (q_cl s Q) as HCL.
  destruct (cpc_eq_dec (cli s i) IdleTr) as [Hpc | NT]; [c_act i 0 0|].
  assert (NI : cli s i <> Idle) by (intro E; rewrite E in HA; discriminate).
  assert (GE : forall k l pc' arg s1, nth_error (cedges fixed (cli s i)) k = Some (l, pc') ->
                 lsem fixed (PCli i) l arg s = Some s1 -> G s).
  { intros k l pc' arg s1 N L. apply (G_c s i k arg l pc' s1 N L); auto; intro; contradiction. }
  destruct (existsb (fun e => never_blocks (fst e)) (cedges fixed (cli s i))) eqn:NB.
  { destruct (existsb_nth _ _ NB) as (k & [l pc'] & N & B).
    destruct (never_blocks_enabled s i k l pc' 0 I1 I2 N B) as [s1 L]. eauto. }
  destruct (has_test_pair (cedges fixed (cli s i))) eqn:TP.
  { destruct (test_pair_enabled s i TP) as (k & l & pc' & s1 & N & L). eauto. }
  (* the waits proper *)
  clear GE. pose proof (i1_W s I1 i) as HW. destruct (cli s i) eqn:Hpc; try discriminate HA; try discriminate NB; try discriminate TP;
    try (solve [eapply trig_moves; eauto]);
    try (destruct HT as [HT | HT]; [| discriminate HT]);
    try (solve [destruct (tr_current s i) eqn:HTC; c_act i 0 0]).
  all: try (solve [dparams; discriminate NB]); simpl in HW.
  - (* WMs *)
    assert (P : pend s <> None) by (apply (l4b s I2 i); rewrite Hpc; reflexivity).
    destruct (pend s) as [j|] eqn:HP; [| congruence].
    assert (HJ : cli s j = W2) by (apply (l3a s I2 j); auto).
    c_act i 0 0.
  - (* WU *)
    destruct (merged s) as [| j rest] eqn:HMg.
    + destruct (pend s) as [j|] eqn:HP.
      * assert (HJ : cli s j = W2) by (apply (l3a s I2 j); auto). c_act i 1 0.
      * c_act i 2 0.
    + assert (HJ : cli s j = W3) by (apply (l3b s I2 j); rewrite HMg; left; reflexivity).
      eapply (G_c _ i 0 j); [rewrite Hpc; reflexivity | | rewrite Hpc; discriminate | rewrite Hpc; discriminate | intros _; rewrite Hpc; discriminate].
      simpl. unfold guard. rewrite HMg, HJ. simpl. rewrite Nat.eqb_refl. reflexivity.
  - (* RO2 *)
    destruct (ce s) eqn:HE; [c_act i 0 0 | c_act i 0 0 | c_act i 1 0 | pose proof (g2 s I2 HE) as HC; c_act i 2 0].
  - (* CL5 *)
    assert (HC : closeC s = true) by (apply (l5b s I2 i); rewrite Hpc; reflexivity).
    assert (HM : mc s = MDone) by (destruct (q_m s Q) as [[_ X] | X]; [congruence | auto]).
    assert (HTc : tc s = TDone) by (destruct (q_t s Q) as [[_ X] | [[_ [X _]] | X]]; [congruence | congruence | auto]).
    c_act i 0 0.
Qed.

Lemma cW_active : forall pc, cW pc = true -> active_pc pc = true.
Proof. destruct pc; simpl; intros; try discriminate; auto. Qed.
Lemma cTl_active : forall pc, cTl pc = true -> active_pc pc = true.
Proof. destruct pc; simpl; intros; try discriminate; auto. Qed.
Lemma owner_active : forall pc, owner_ok pc = true -> active_pc pc = true.
Proof. destruct pc; simpl; intros; try discriminate; auto. Qed.
Lemma mergephase_active : forall pc, mergephase pc = true -> active_pc pc = true.
Proof. destruct pc; simpl; intros; try discriminate; auto. Qed.

Definition wwait_pc (pc : cpc) : bool := match pc with W1 _ | OT1 _ | CR1 | RO1 | CL4 => true | _ => false end.

Lemma cW_not_idletr : forall pc, cW pc = true -> pc <> IdleTr.
Proof. intros pc H E; subst; discriminate. Qed.
Lemma cTl_not_idletr : forall pc, cTl pc = true -> pc <> IdleTr.
Proof. intros pc H E; subst; discriminate. Qed.
Lemma mergephase_not_idletr : forall pc, mergephase pc = true -> pc <> IdleTr.
Proof. intros pc H E; subst; discriminate. Qed.

(* in the strict reading: closeC is closed, and Close, once it waits for the write lock, never waits for a
   transaction whose owner is between calls *)
Definition strict_hyp (s : state) : Prop :=
  st = Strict -> closeC s = true /\ forall i o, cli s i = CL4 -> trown s = Some o -> cli s o <> IdleTr.

Lemma wwait_moves : forall s i, inv1 s -> inv2 s -> quiet s -> tl s = None -> strict_hyp s ->
  wwait_pc (cli s i) = true -> G s.
Proof.
  intros s i I1 I2 Q HTL HS HWW.
  destruct (wl s) as [| p | |] eqn:HWL.
  - (* free *) destruct (cli s i) eqn:Hpc; simpl in HWW; try discriminate; dparams; c_act i 0 0.
  - destruct p as [h | | |].
    + assert (HC : cW (cli s h) = true).
      { destruct I1 as [IW _ _ _ _ _ _ _ _ _ _]. rewrite <- IW. unfold wl_is. rewrite HWL. simpl. apply Nat.eqb_refl. }
      apply (active_moves s h); auto using cW_active, cW_not_idletr.
    + exfalso. destruct I1 as [_ IWM _ _ _ _ _ _ _ _ _]. unfold wl_is in IWM. rewrite HWL in IWM. discriminate.
    + exfalso. destruct I1 as [_ _ IWT _ _ _ _ _ _ _ _]. unfold wl_is in IWT. rewrite HWL in IWT. discriminate.
    + assert (LK : locking s = true).
      { destruct I1 as [_ _ _ IWCE _ _ _ _ _ _ _]. rewrite <- IWCE. unfold wl_is. rewrite HWL. reflexivity. }
      pose proof (g3 s I2 LK) as HE.
      destruct (cli s i) eqn:Hpc; simpl in HWW; try discriminate; dparams; try (c_act i 1 0).
      exfalso. assert (HC : closeC s = true) by (apply (l5b s I2 i); rewrite Hpc; reflexivity).
      pose proof (q_ce s Q HC). congruence.
  - (* owned by the open transaction *)
    assert (TO : trown s <> None) by (apply (g10 s I2); auto).
    destruct (trown s) as [o|] eqn:HO; [| congruence].
    pose proof (l7 s I2 o HO) as OK.
    destruct (rmode_cases st) as [EST | EST].
    + apply (active_moves s o); auto using owner_active. intro X; congruence.
    + (* strict: the waiters other than Close leave at closeC; Close does not wait for an owner at IdleTr *)
      destruct (HS EST) as [HC HK].
      destruct (cli s i) eqn:Hpc; simpl in HWW; try discriminate; dparams; try (c_act i 2 0).
      apply (active_moves s o); auto using owner_active. intros _. eapply HK; eauto.
  - (* closed *)
    pose proof (g11 s I2 HWL) as HC.
    destruct (cli s i) eqn:Hpc; simpl in HWW; try discriminate; dparams; try (c_act i 2 0).
    exfalso. apply (l8 s I2 i); rewrite ?Hpc; auto.
Qed.

Lemma passive_moves : forall s i, inv1 s -> inv2 s -> quiet s -> tl s = None ->
  (cli s i = W2 \/ cli s i = W3) -> G s.
Proof.
  intros s i I1 I2 Q HTL H.
  assert (X : pend s <> None \/ merged s <> []).
  { destruct H as [H | H].
    - left. apply (l3a s I2 i) in H. congruence.
    - right. apply (l3b s I2 i) in H. intro E. rewrite E in H. destruct H. }
  destruct (l4 s I2 X) as [h [HW HM]].
  apply (active_moves s h); auto using mergephase_active, mergephase_not_idletr.
Qed.

Theorem progress_gen : forall s, inv1 s -> inv2 s -> strict_hyp s ->
  (exists i, cli s i <> Idle /\ (st = Strict -> cli s i <> IdleTr)) -> G s.
Proof.
  intros s I1 I2 HS [i [Hi Hi2]].
  destruct (to_quiet s I1 I2) as [X | Q]; [exact X|].
  destruct (tl s) as [h|] eqn:HTL.
  - assert (HC : cTl (cli s h) = true) by (destruct I1; auto).
    apply (active_moves s h); auto using cTl_active, cTl_not_idletr.
  - destruct (wwait_pc (cli s i)) eqn:HW; [eapply wwait_moves; eauto|].
    destruct (active_pc (cli s i)) eqn:HA; [apply (active_moves s i); auto|].
    destruct (cli s i) eqn:Hpc; simpl in HW, HA; try discriminate; try congruence.
    + eapply passive_moves; eauto.
    + eapply passive_moves; eauto.
Qed.

End Progress.

Definition G (s : state) : Prop :=
  exists a, is_arrival fixed s a = false /\ exists s', step fixed s a = Some s'.

Theorem progress : forall s, inv1 s -> inv2 s -> pending s -> G s.
Proof.
  intros s I1 I2 [i Hi].
  destruct (progress_gen Loose s I1 I2) as (a & NA & _ & ST).
  - intro; discriminate.
  - exists i. split; auto. intro; discriminate.
  - exists a. split; auto.
Qed.

(* the strict reading, for the closing phase *)
Theorem progress_strict : forall s, inv1 s -> inv2 s -> closeC s = true ->
  (forall i o, cli s i = CL4 -> trown s = Some o -> cli s o <> IdleTr) ->
  (exists i, cli s i <> Idle /\ cli s i <> IdleTr) ->
  exists a, is_arrival fixed s a = false /\ at_idletr s a = false /\ exists s', step fixed s a = Some s'.
Proof.
  intros s I1 I2 HC HK [i [H1 H2]].
  destruct (progress_gen Strict s I1 I2) as (a & NA & NI & ST).
  - intros _. split; auto.
  - exists i. split; auto.
  - exists a. repeat split; auto.
Qed.
