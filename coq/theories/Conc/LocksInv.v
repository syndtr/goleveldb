(* Conc/LocksInv.v — preservation of the protocol invariant inv2' (= glob + per-client loc, see
   LocksDeadlock.v) by the steps of a client: one lemma per label that changes the shared state, plus inv2_pure
   for the labels that do not.  (Background goroutines: Conc/LocksInvBg.v; assembly: Conc/LocksInvAll.v.)

   The edge typing cedge2_ok is read in Prop once (ctyped).  Together with what the label says about the shared
   state (lbl_side) it gives [moves s i pc pc']: client i may go from pc to pc' in shared state s, which is all
   that the client's own facts need (loc_pure). *)
From GL Require Import Conc.Locks Conc.LocksProofs Conc.LocksDeadlock.

(* the classes of program counters that glob reads are kept by every label but the named ones *)
Lemma ct_keep_early : forall pc l pc', ctyped pc l pc' -> lbl_is l LCloseChan = false ->
  closer_early pc = true -> closer_early pc' = true.
Proof. intros pc l pc' T N X. destruct (ct_early _ _ _ T X); congruence. Qed.
Lemma ct_keep_merge : forall pc l pc', ctyped pc l pc' -> lbl_is l LGiveW = false -> lbl_is l LRelWU = false ->
  mergephase pc = true -> mergephase pc' = true.
Proof. intros pc l pc' T N1 N2 X. destruct (ct_merge _ _ _ T X) as [Y | [Y | Y]]; congruence. Qed.
Lemma ct_keep_phase : forall pc l pc', ctyped pc l pc' -> lbl_is l (LCasClosed true) = false ->
  closer_phase pc' = true -> closer_phase pc = true.
Proof. intros pc l pc' T N X. destruct (ct_phase _ _ _ T X); congruence. Qed.

(* what the label tells its actor about the shared state (the one the actor's new facts are stated in) *)
Definition lbl_side (s : state) (i : nat) (pc : cpc) (l : lbl) : Prop :=
  match l with
  | LSendCmd BM _ => mx s = Some (i, ctk s i)
  | LSendCmd BT _ => tx s = Some (i, ctk s i) \/ In (i, ctk s i) (tq s)
  | LMergeRecv true => pend s <> None
  | LCasClosed true => closed s = true /\ wl s <> WClosed
  | LCloseChan => closeC s = true
  | LLockT => trc s i pc = false \/ tl s = Some i
  | LIfTrOpen b => trc s i pc = b
  | LRelWTr => trc s i pc = false
  | LIfClosed false => closed s = false
  | _ => True
  end.

Record moves (s : state) (i : nat) (pc pc' : cpc) : Prop := {
  mv_bm : is_trigw BM pc' = true -> mx s = Some (i, ctk s i);
  mv_bt : is_trigw BT pc' = true -> tx s = Some (i, ctk s i) \/ In (i, ctk s i) (tq s);
  mv_W23' : is_W23 pc' = false;
  mv_W23 : is_W23 pc = false;
  mv_WMs : is_WMs pc' = true -> pend s <> None;
  mv_phase : closer_phase pc' = true -> closer_phase pc = true \/ (closed s = true /\ wl s <> WClosed);
  mv_after : closer_after pc' = true -> closer_after pc = true \/ closeC s = true;
  mv_has : closer_has pc = true -> closer_has pc' = true \/ closer_phase pc' = false;
  mv_ctx : cTl pc' = true -> in_close_ctx pc' = in_close_ctx pc;
  mv_cTl : cTl pc' = true -> cTl pc = true \/ trc s i pc = false \/ tl s = Some i;
  mv_tropen : tropen_pc pc' = true -> tropen_pc pc = true \/ trc s i pc = true;
  mv_owner : owner_ok pc = true -> owner_ok pc' = true \/ trc s i pc = false;
  mv_ctx_owner : in_close_ctx pc = true -> owner_ok pc = false;
  mv_ot : ot_phase pc' = true -> ot_phase pc = true \/ closed s = false
}.

Lemma typed_moves : forall s i pc l pc', ctyped pc l pc' -> lbl_side s i pc l -> moves s i pc pc'.
Proof.
  intros s i pc l pc' T S. constructor.
  - intro X. pose proof (ct_trigw _ _ _ T _ X) as Y. destruct l; try discriminate Y. destruct b; [exact S | discriminate Y].
  - intro X. pose proof (ct_trigw _ _ _ T _ X) as Y. destruct l; try discriminate Y. destruct b; [discriminate Y | exact S].
  - exact (ct_W23' _ _ _ T).
  - exact (ct_W23 _ _ _ T).
  - intro X. pose proof (ct_WMs' _ _ _ T X) as Y. destruct l; try discriminate Y. destruct fits; [exact S | discriminate Y].
  - intro X. destruct (ct_phase _ _ _ T X) as [Y | Y]; [left; exact Y | right].
    destruct l; try discriminate Y. destruct b; [exact S | discriminate Y].
  - intro X. destruct (ct_after _ _ _ T X) as [Y | Y]; [left; exact Y | right]. destruct l; try discriminate Y. exact S.
  - exact (ct_has _ _ _ T).
  - exact (ct_ctx _ _ _ T).
  - intro X. destruct (ct_cTl _ _ _ T X) as [Y | Y]; [left; exact Y | right]. destruct l; try discriminate Y. exact S.
  - intro X. destruct (ct_tropen _ _ _ T X) as [Y | Y]; [left; exact Y | right].
    destruct l; try discriminate Y. destruct b; [exact S | discriminate Y].
  - intro X. destruct (ct_owner _ _ _ T X) as [Y | [Y | Y]]; [left; exact Y | right | right];
      destruct l; try discriminate Y; [exact S | destruct b; [discriminate Y | exact S]].
  - exact (ct_ctx_owner _ _ _ T).
  - intro X. destruct (ct_ot _ _ _ T X) as [Y | Y]; [left; exact Y | right].
    destruct l; try discriminate Y. destruct b; [discriminate Y | exact S].
Qed.

Lemma loc_other : forall s s' j pc,
  mx s' = mx s -> ctk s' = ctk s -> tx s' = tx s -> tq s' = tq s -> pend s' = pend s -> merged s' = merged s ->
  closed s' = closed s -> closeC s' = closeC s -> wl s' = wl s -> tl s' = tl s -> trown s' = trown s ->
  closetgt s' = closetgt s -> loc s j pc -> loc s' j pc.
Proof.
  intros s s' j pc E1 E2 E3 E4 E5 E6 E7 E8 E9 E10 E11 E12 [].
  constructor; unfold trc in *; rewrite ?E1, ?E2, ?E3, ?E4, ?E5, ?E6, ?E7, ?E8, ?E9, ?E10, ?E11, ?E12; auto.
Qed.

Lemma tropen_cTl : forall pc, tropen_pc pc = true -> cTl pc = true.
Proof. destruct pc; simpl; intros; try discriminate; auto; dparams; auto; discriminate. Qed.

(* the actor's own facts after its move *)
Lemma loc_pure : forall s i pc pc',
  loc s i pc -> (closetgt s <> None -> closed s = true) -> moves s i pc pc' -> loc s i pc'.
Proof.
  intros s i pc pc' L Gl [T1a T1b T2 T3 T4 T5 T6 T7 T8 T9 T10 T11 T12 T13].
  destruct L as [A1 A2 A3a A3b A4b A5a A5b A8 A6a A6 A7 A9]. constructor.
  - exact T1a.
  - exact T1b.
  - split; intro X.
    + subst pc'. discriminate.
    + apply A3a in X. subst pc. discriminate.
  - split; intro X.
    + subst pc'. discriminate.
    + apply A3b in X. subst pc. discriminate.
  - exact T4.
  - intro X. destruct (T5 X) as [Z | [Z _]]; auto.
  - intro X. destruct (T6 X) as [Z | Z]; auto.
  - intros X Y. destruct (T5 X) as [Z | [_ Z]]; auto. apply A8; auto. destruct (closer_has pc) eqn:E; auto.
    destruct (T7 eq_refl); congruence.
  - intros X Y. assert (E : trc s i pc' = trc s i pc) by (unfold trc; rewrite (T8 X); reflexivity).
    rewrite E in Y. destruct (T9 X) as [Z | [Z | Z]]; [auto | congruence | auto].
  - intro X. assert (E : trc s i pc' = trc s i pc) by (unfold trc; rewrite (T8 (tropen_cTl _ X)); reflexivity).
    rewrite E. destruct (T10 X); auto.
  - intro X. pose proof (A7 X) as O.
    destruct (T11 O) as [Z | Z]; auto.
    exfalso. unfold trc in Z. destruct (in_close_ctx pc) eqn:IC; [specialize (T12 eq_refl); congruence|].
    rewrite X in Z. simpl in Z. rewrite Nat.eqb_refl in Z. discriminate.
  - intro X. destruct (ot_phase pc') eqn:O; auto. destruct (T13 eq_refl) as [Z | Z].
    + specialize (A9 X). congruence.
    + exfalso. assert (closetgt s <> None) by congruence. pose proof (Gl H). congruence.
Qed.

(* the three facts of glob that read program counters, when client i moves *)
Lemma gg6_upd : forall (f : nat -> cpc) i pc',
  (exists w, closer_early (f w) = true) -> (closer_early (f i) = true -> closer_early pc' = true) ->
  exists w, closer_early (upd f i pc' w) = true.
Proof.
  intros f i pc' [w Hw] H. exists w. unfold upd. destruct (Nat.eqb w i) eqn:E; auto.
  apply Nat.eqb_eq in E; subst; auto.
Qed.
Lemma ggl4_upd : forall (f : nat -> cpc) w i pc',
  (exists h, w = WHeld (PCli h) /\ mergephase (f h) = true) -> (mergephase (f i) = true -> mergephase pc' = true) ->
  exists h, w = WHeld (PCli h) /\ mergephase (upd f i pc' h) = true.
Proof.
  intros f w i pc' [h [Hw Hm]] H. exists h. split; auto. unfold upd. destruct (Nat.eqb h i) eqn:E; auto.
  apply Nat.eqb_eq in E; subst; auto.
Qed.
Lemma ggu1_upd : forall (f : nat -> cpc) i pc',
  (forall a b, closer_phase (f a) = true -> closer_phase (f b) = true -> a = b) ->
  (closer_phase pc' = true -> closer_phase (f i) = true \/ forall j, closer_phase (f j) = false) ->
  forall a b, closer_phase (upd f i pc' a) = true -> closer_phase (upd f i pc' b) = true -> a = b.
Proof.
  intros f i pc' U H a b. unfold upd.
  destruct (Nat.eqb a i) eqn:Ea; destruct (Nat.eqb b i) eqn:Eb;
    try (apply Nat.eqb_eq in Ea); try (apply Nat.eqb_eq in Eb); subst; intros X Y; auto.
  - destruct (H X) as [Z | Z]; [apply U; auto | rewrite Z in Y; discriminate].
  - destruct (H Y) as [Z | Z]; [apply U; auto | rewrite Z in X; discriminate].
Qed.

Lemma glob_set_pc : forall s i pc',
  glob s ->
  (closer_early (cli s i) = true -> closer_early pc' = true) ->
  (pend s <> None \/ merged s <> [] -> mergephase (cli s i) = true -> mergephase pc' = true) ->
  (closer_phase pc' = true -> closer_phase (cli s i) = true) ->
  glob (set_pc s i pc').
Proof.
  intros s i pc' Gl H1 H2 H3. destruct Gl. constructor; simpl; auto.
  - intros A B. apply gg6_upd; auto.
  - intro A. apply ggl4_upd; auto.
  - apply ggu1_upd; auto.
Qed.

Lemma glob_move : forall s i l pc', glob s -> ctyped (cli s i) l pc' ->
  lbl_is l LCloseChan = false -> lbl_is l LGiveW = false -> lbl_is l LRelWU = false ->
  lbl_is l (LCasClosed true) = false -> glob (set_pc s i pc').
Proof.
  intros s i l pc' Gl T N1 N2 N3 N4. apply glob_set_pc; auto.
  - exact (ct_keep_early _ _ _ T N1).
  - intros _. exact (ct_keep_merge _ _ _ T N2 N3).
  - exact (ct_keep_phase _ _ _ T N4).
Qed.

(* no transaction is open unless it owns the write lock *)
Lemma glob_no_tr : forall s, glob s -> wl s <> WTr -> trown s = None.
Proof.
  intros s Gl NW. destruct (trown s) eqn:E; auto. exfalso. apply NW. apply (gg10 s Gl). congruence.
Qed.

Lemma mergephase_cW : forall pc, mergephase pc = true -> cW pc = true.
Proof. destruct pc; simpl; intros; try discriminate; auto; dparams; auto; discriminate. Qed.

(* the holder of the write lock gives it up only when no merged writer waits for it *)
Lemma holder_done : forall s i pc', glob s -> wl s = WHeld (PCli i) ->
  (mergephase (cli s i) = true -> mergephase pc' = true) -> cW pc' = false -> pend s = None /\ merged s = [].
Proof.
  intros s i pc' Gl HW K NW.
  assert (N : ~ (pend s <> None \/ merged s <> [])).
  { intro A. destruct (ggl4 s Gl A) as [h [Hh Mh]]. rewrite HW in Hh. inversion Hh; subst h.
    pose proof (mergephase_cW _ (K Mh)). congruence. }
  split; [destruct (pend s) | destruct (merged s)]; auto; exfalso; apply N; [left | right]; discriminate.
Qed.

(* all facts after a step of client i that leaves the shared state as it is *)
Lemma inv2_pure : forall s i pc', inv2' s -> moves s i (cli s i) pc' ->
  (closer_early (cli s i) = true -> closer_early pc' = true) ->
  (mergephase (cli s i) = true -> mergephase pc' = true) ->
  (closer_phase pc' = true -> closer_phase (cli s i) = true) ->
  inv2' (set_pc s i pc').
Proof.
  intros s i pc' [Gl L] M K1 K2 K3. split.
  - apply glob_set_pc; auto.
  - intro j. simpl. unfold upd. destruct (Nat.eqb j i) eqn:E.
    + apply Nat.eqb_eq in E; subst j. apply (loc_other s); try reflexivity.
      apply (loc_pure s i (cli s i)); auto. exact (gg12 s Gl).
    + apply (loc_other s); try reflexivity. apply L.
Qed.

(* stability of one client's facts under a change of the shared state, with one obligation per fact *)
Lemma loc_chg : forall s s' j pc, loc s j pc ->
  (is_trigw BM pc = true -> mx s' = mx s /\ ctk s' j = ctk s j) ->
  (is_trigw BT pc = true -> (tx s = Some (j, ctk s j) \/ In (j, ctk s j) (tq s)) ->
                            tx s' = Some (j, ctk s' j) \/ In (j, ctk s' j) (tq s')) ->
  (pend s' = Some j <-> pend s = Some j) -> (In j (merged s') <-> In j (merged s)) ->
  (is_WMs pc = true -> pend s <> None -> pend s' <> None) ->
  (closed s = true -> closed s' = true) -> (closeC s = true -> closeC s' = true) ->
  (closer_phase pc = true -> closer_has pc = false -> wl s <> WClosed -> wl s' <> WClosed) ->
  (cTl pc = true -> trc s' j pc = true -> trc s j pc = true /\ (tl s = Some j -> tl s' = Some j)) ->
  (tropen_pc pc = true -> trc s j pc = true -> trc s' j pc = true) ->
  (trown s' = Some j -> trown s = Some j \/ owner_ok pc = true) ->
  (closetgt s' = Some j -> closetgt s = Some j \/ ot_phase pc = false) ->
  loc s' j pc.
Proof.
  intros s s' j pc [A1 A2 A3a A3b A4b A5a A5b A8 A6a A6 A7 A9] C1 C2 C3a C3b C4b C5a C5b C8 C6a C6 C7 C9.
  constructor.
  - intro X. destruct (C1 X) as [E1 E2]. rewrite E1, E2. auto.
  - intro X. apply C2; auto.
  - rewrite C3a. exact A3a.
  - rewrite C3b. exact A3b.
  - intro X. apply C4b; auto.
  - intro X. auto.
  - intro X. auto.
  - intros X Y. apply C8; auto.
  - intros X Y. destruct (C6a X Y) as [Z1 Z2]. auto.
  - intro X. apply C6; auto.
  - intro X. destruct (C7 X); auto.
  - intro X. destruct (C9 X); auto.
Qed.

(* the obligations of loc_chg that a change leaves trivial *)
Ltac chg := simpl; auto; try tauto; try (intros; split; auto).
Ltac stab L := let j := fresh "j" in intro j; apply (loc_chg _ _ j _ (L j)); chg.

(* the fields layer 3 looks at (everything but cl, memclr, poisoned, nexttk) *)
Definition same2 (s s' : state) : Prop :=
  wl s' = wl s /\ tl s' = tl s /\ closed s' = closed s /\ closeC s' = closeC s /\ trown s' = trown s /\
  closetgt s' = closetgt s /\ locking s' = locking s /\ cli s' = cli s /\ ctk s' = ctk s /\
  merged s' = merged s /\ pend s' = pend s /\ mc s' = mc s /\ mx s' = mx s /\ tc s' = tc s /\ tx s' = tx s /\
  tq s' = tq s /\ ce s' = ce s.

Lemma inv2'_frame : forall s s', same2 s s' -> inv2' s -> inv2' s'.
Proof.
  intros s s' (E1 & E2 & E3 & E4 & E5 & E6 & E7 & E8 & E9 & E10 & E11 & E12 & E13 & E14 & E15 & E16 & E17) [Gl L].
  split.
  - destruct Gl. constructor; rewrite ?E1, ?E2, ?E3, ?E4, ?E5, ?E6, ?E7, ?E8, ?E9, ?E10, ?E11, ?E12, ?E13, ?E14, ?E15, ?E16, ?E17; auto.
  - intro j. rewrite E8. apply (loc_other s); auto.
Qed.

Lemma orb_false_elim : forall a b, implb a (b || false) = true -> a = true -> b = true.
Proof. intros a b H X. pose proof (implb_elim _ _ H X) as Y. rewrite orb_false_r in Y. exact Y. Qed.

(* assembling the facts after a step of client i: s1 is the new shared state *)
Lemma inv2_actor : forall s1 i pc',
  (forall j, j <> i -> loc s1 j (cli s1 j)) -> loc s1 i pc' -> glob (set_pc s1 i pc') ->
  inv2' (set_pc s1 i pc').
Proof.
  intros s1 i pc' L LI Gl. split; [exact Gl|].
  intro j. simpl. unfold upd. destruct (Nat.eqb j i) eqn:E.
  - apply Nat.eqb_eq in E; subst j. apply (loc_other s1); try reflexivity. exact LI.
  - apply Nat.eqb_neq in E. apply (loc_other s1); try reflexivity. auto.
Qed.

(* first the change of the shared state, then the move of the program counter *)
Lemma inv2_after : forall s s1 i pc',
  cli s1 = cli s -> (forall j, loc s1 j (cli s j)) -> glob (set_pc s1 i pc') -> moves s1 i (cli s i) pc' ->
  inv2' (set_pc s1 i pc').
Proof.
  intros s s1 i pc' EC L Gl M. apply inv2_actor; auto.
  - intros j _. rewrite EC. apply L.
  - apply (loc_pure s1 i (cli s i)); auto. exact (gg12 _ Gl).
Qed.

(* the other order: first the move of the program counter (in the old shared state), then the change *)
Lemma inv2_before : forall s s1 i pc',
  cli s1 = cli s -> inv2' s ->
  (forall j pc, loc s j pc -> (j = i -> pc = pc') -> (j <> i -> pc = cli s j) -> loc s1 j pc) ->
  glob (set_pc s1 i pc') -> moves s i (cli s i) pc' ->
  inv2' (set_pc s1 i pc').
Proof.
  intros s s1 i pc' EC [Gl0 L] ST Gl M. apply inv2_actor; auto.
  - intros j NE. rewrite EC. apply ST; auto; congruence.
  - apply ST; auto; [| congruence]. apply (loc_pure s i (cli s i)); auto. exact (gg12 s Gl0).
Qed.

Lemma closer_early_phase : forall pc, closer_early pc = true -> closer_phase pc = true.
Proof. destruct pc; simpl; intros; try discriminate; auto. Qed.
Lemma closer_after_phase : forall pc, closer_after pc = true -> closer_phase pc = true.
Proof. unfold closer_after; intros pc H; apply andb_prop in H; tauto. Qed.
Lemma in_close_ctx_after : forall pc, in_close_ctx pc = true -> closer_after pc = true.
Proof. destruct pc; simpl; intros; try discriminate; dparams; try discriminate; auto. Qed.

(* Close: setClosed *)
Lemma step_cas : forall s i pc', inv1 s -> inv2' s -> closed s = false ->
  cedge2_ok (cli s i) (LCasClosed true, pc') = true ->
  inv2' (set_pc (set_closed s true) i pc').
Proof.
  intros s i pc' I1 [Gl L] HD EK. apply cedge2_typed in EK; rename EK into T.
  destruct (ct_cas _ _ _ T eq_refl) as [_ CE].
  assert (NC : forall j, closer_phase (cli s j) = false).
  { intro j. destruct (closer_phase (cli s j)) eqn:E; auto. pose proof (lc5a _ _ _ (L j) E). congruence. }
  assert (HC : closeC s = false).
  { destruct (closeC s) eqn:E; auto. pose proof (gg1 s Gl E). congruence. }
  apply (inv2_after s); try reflexivity.
  - stab L.
  - destruct Gl. constructor; simpl; auto.
    + intros _ _. exists i. rewrite upd_same. exact CE.
    + intro A. apply ggl4_upd; auto. exact (ct_keep_merge _ _ _ T eq_refl eq_refl).
    + apply ggu1_upd; auto.
  - apply (typed_moves _ _ _ _ _ T). split; [reflexivity|]. intro W. pose proof (gg11 s Gl W). congruence.
Qed.

(* Close: close(closeC) *)
Lemma step_closechan : forall s i pc', inv1 s -> inv2' s ->
  cedge2_ok (cli s i) (LCloseChan, pc') = true ->
  inv2' (set_pc (set_closeC s true) i pc').
Proof.
  intros s i pc' I1 [Gl L] EK. apply cedge2_typed in EK; rename EK into T.
  pose proof (lc5a _ _ _ (L i) (closer_early_phase _ (ct_chan _ _ _ T eq_refl))) as HD.
  apply (inv2_after s); try reflexivity.
  - stab L.
  - destruct Gl. constructor; simpl; auto.
    + intros _ X; discriminate.
    + intro A. apply ggl4_upd; auto. exact (ct_keep_merge _ _ _ T eq_refl eq_refl).
    + apply ggu1_upd; auto. intro X. left. exact (ct_keep_phase _ _ _ T eq_refl X).
  - apply (typed_moves _ _ _ _ _ T). reflexivity.
Qed.

Lemma owner_not_ot : forall pc, owner_ok pc = true -> ot_phase pc = false.
Proof. destruct pc; simpl; intros; try discriminate; auto; dparams; auto; discriminate. Qed.
Lemma trc_no_ctx : forall s s' j pc, in_close_ctx pc = false -> trown s' = trown s -> trc s' j pc = trc s j pc.
Proof. intros. unfold trc. rewrite H, H0. reflexivity. Qed.

(* nobody but the closing client is in Close's Discard *)
Lemma no_ctx_but_closer : forall s i, glob s -> closer_phase (cli s i) = true -> in_close_ctx (cli s i) = false ->
  forall j, in_close_ctx (cli s j) = false.
Proof.
  intros s i Gl CP NC j. destruct (in_close_ctx (cli s j)) eqn:E; auto.
  assert (j = i).
  { apply (ggu1 s Gl); auto. apply closer_after_phase. apply in_close_ctx_after. exact E. }
  subst. congruence.
Qed.

(* Close: read db.tr *)
Lemma step_readdbtr : forall s i pc' b, inv1 s -> inv2' s ->
  cedge2_ok (cli s i) (LReadDbTr b, pc') = true ->
  forall ct, (ct = trown s) ->
  inv2' (set_pc (set_closetgt s ct) i pc').
Proof.
  intros s i pc' b I1 [Gl L] EK ct ECT. apply cedge2_typed in EK; rename EK into T.
  destruct (ct_readdbtr _ _ _ T) as [CA NC]; [destruct b; reflexivity|].
  pose proof (closer_after_phase _ CA) as CP.
  pose proof (lc5a _ _ _ (L i) CP) as HD.
  pose proof (no_ctx_but_closer s i Gl CP NC) as NCX.
  apply (inv2_after s); try reflexivity.
  - intro j. apply (loc_chg _ _ j _ (L j)); chg.
    + match goal with H : trc (set_closetgt _ _) _ _ = true |- _ =>
        rewrite (trc_no_ctx s _ j _ (NCX j)) in H by reflexivity; exact H end.
    + intros X Y. rewrite (trc_no_ctx s _ j _ (NCX j)) by reflexivity. auto.
    + intro X. right. apply owner_not_ot. apply (lc7 _ _ _ (L j)). congruence.
  - apply (glob_move _ _ (LReadDbTr b)); auto. destruct Gl. constructor; simpl; auto.
  - apply (typed_moves _ _ _ _ _ T). exact I.
Qed.

(* the write lock is taken from the free state by client i (not by Close) *)
Lemma step_acq : forall s i pc' l, inv1 s -> inv2' s -> wl s = WFree ->
  (l = LAcqW \/ l = LAcqWRO) ->
  cedge2_ok (cli s i) (l, pc') = true ->
  inv2' (set_pc (set_wl s (WHeld (PCli i))) i pc').
Proof.
  intros s i pc' l I1 I2 HW HL EK. pose proof I2 as [Gl L]. apply cedge2_typed in EK; rename EK into T.
  assert (TN : trown s = None) by (apply (glob_no_tr s Gl); congruence).
  apply (inv2_before s); try reflexivity; auto.
  - intros j pc LJ _ _. apply (loc_chg s _ j pc LJ); chg. intros; discriminate.
  - apply (glob_move _ _ l); auto; try (destruct HL; subst l; reflexivity).
    destruct Gl. constructor; simpl; auto.
    + split; [intro X; discriminate | intro X; congruence].
    + intro X; discriminate.
    + intro A. destruct (ggl4 A) as [h [Hh _]]. congruence.
  - apply (typed_moves _ _ _ _ _ T). destruct HL; subst l; exact I.
Qed.

(* Close takes the write lock for ever *)
Lemma step_acqclose : forall s i pc', inv1 s -> inv2' s -> wl s = WFree ->
  cedge2_ok (cli s i) (LAcqWClose, pc') = true ->
  inv2' (set_pc (set_wl s WClosed) i pc').
Proof.
  intros s i pc' I1 I2 HW EK. pose proof I2 as [Gl L]. apply cedge2_typed in EK; rename EK into T.
  assert (TN : trown s = None) by (apply (glob_no_tr s Gl); congruence).
  destruct (ct_acqclose _ _ _ T eq_refl) as [CA CH].
  pose proof (lc5b _ _ _ (L i) CA) as HC.
  apply (inv2_before s); try reflexivity; auto.
  - intros j pc LJ E1 E2. apply (loc_chg s _ j pc LJ); chg.
    intros X Y _. exfalso. destruct (Nat.eq_dec j i) as [E | E].
    + subst j. rewrite (E1 eq_refl) in Y. congruence.
    + rewrite (E2 E) in X. assert (j = i).
      { apply (ggu1 s Gl); auto. apply closer_after_phase; auto. }
      congruence.
  - apply (glob_move _ _ LAcqWClose); auto. destruct Gl. constructor; simpl; auto.
    + split; [intro X; discriminate | intro X; congruence].
    + intro A. destruct (ggl4 A) as [h [Hh _]]. congruence.
  - apply (typed_moves _ _ _ _ _ T). exact I.
Qed.

(* the holder gives the write lock back *)
Lemma step_rel : forall s i pc' l, inv1 s -> inv2' s -> wl s = WHeld (PCli i) ->
  (l = LRelW \/ (l = LRelWU /\ merged s = [] /\ pend s = None)) ->
  cedge1_ok (cli s i) (l, pc') = true ->
  cedge2_ok (cli s i) (l, pc') = true ->
  inv2' (set_pc (set_wl s WFree) i pc').
Proof.
  intros s i pc' l I1 I2 HW HL EK1 EK. pose proof I2 as [Gl L]. apply cedge2_typed in EK; rename EK into T.
  assert (TN : trown s = None) by (apply (glob_no_tr s Gl); congruence).
  assert (NM : pend s = None /\ merged s = []).
  { destruct HL as [-> | (_ & HM & HP)]; [| auto].
    apply (holder_done s i pc'); auto; [exact (ct_keep_merge _ _ _ T eq_refl eq_refl)|].
    apply (cedge1_dW _ _ _ true false EK1). reflexivity. }
  destruct NM as [HP HM].
  assert (LB : lbl_is l LCloseChan = false /\ lbl_is l (LCasClosed true) = false /\ lbl_side s i (cli s i) l).
  { destruct HL as [-> | [-> _]]; repeat split; reflexivity. }
  destruct LB as (N1 & N2 & SD).
  apply (inv2_before s); try reflexivity; auto.
  - intros j pc LJ _ _. apply (loc_chg s _ j pc LJ); chg. intros; discriminate.
  - apply glob_set_pc.
    + destruct Gl. constructor; simpl; auto.
      * split; [intro X; discriminate | intro X; congruence].
      * intro X; discriminate.
      * intros [A | A]; congruence.
    + exact (ct_keep_early _ _ _ T N1).
    + intros [A | A]; simpl in A; congruence.
    + exact (ct_keep_phase _ _ _ T N2).
  - exact (typed_moves _ _ _ _ _ T SD).
Qed.

(* OpenTransaction: db.tr = tr, the write lock now belongs to the transaction *)
Lemma step_wtotr : forall s i pc', inv1 s -> inv2' s -> wl s = WHeld (PCli i) ->
  cedge1_ok (cli s i) (LWToTr, pc') = true ->
  cedge2_ok (cli s i) (LWToTr, pc') = true ->
  inv2' (set_pc (set_trown (set_wl s WTr) (Some i)) i pc').
Proof.
  intros s i pc' I1 I2 HW EK1 EK. pose proof I2 as [Gl L]. apply cedge2_typed in EK; rename EK into T.
  assert (TN : trown s = None) by (apply (glob_no_tr s Gl); congruence).
  pose proof (ct_wtotr_ot _ _ _ T eq_refl) as OT.
  destruct (ct_wtotr _ _ _ T eq_refl) as [OK NT].
  apply (cedge1_dW _ _ _ true false) in EK1; [| reflexivity].
  destruct (holder_done s i pc' Gl HW) as [HP HM]; [exact (ct_keep_merge _ _ _ T eq_refl eq_refl) | tauto |].
  clear EK1.
  apply (inv2_before s); try reflexivity; auto.
  - intros j pc LJ E1 E2. apply (loc_chg s _ j pc LJ); chg.
    + intros; discriminate.
    + (* trc in the new state *)
      exfalso. unfold trc in *. simpl in *.
      destruct (in_close_ctx pc) eqn:IC.
      * destruct (closetgt s) as [o|] eqn:CT; [| discriminate].
        match goal with H : Nat.eqb i o = true |- _ => apply Nat.eqb_eq in H; subst o end.
        pose proof (lc9 _ _ _ (L i) CT). congruence.
      * match goal with H : Nat.eqb i j = true |- _ => apply Nat.eqb_eq in H; subst j end.
        rewrite (E1 eq_refl) in *. congruence.
    + intros X Y. unfold trc in Y. rewrite TN in Y. destruct (in_close_ctx pc); [destruct (closetgt s)|]; simpl in Y; discriminate.
    + intro X. inversion X; subst j. right. rewrite (E1 eq_refl). exact OK.
  - apply (glob_move _ _ LWToTr); auto. destruct Gl. constructor; simpl; auto.
    + split; [intro X; discriminate | reflexivity].
    + intro X; discriminate.
    + intros [A | A]; congruence.
  - apply (typed_moves _ _ _ _ _ T). exact I.
Qed.

Lemma trc_none : forall s j pc, trown s = None -> trc s j pc = false.
Proof. intros. unfold trc. rewrite H. destruct (in_close_ctx pc); [destruct (closetgt s)|]; reflexivity. Qed.

(* setDone: the transaction's write lock is released *)
Lemma step_reltr : forall s i pc', inv1 s -> inv2' s -> wl s = WTr -> tr_current s i = true ->
  cedge2_ok (cli s i) (LRelWTr, pc') = true ->
  inv2' (set_pc (set_trown (set_wl s WFree) None) i pc').
Proof.
  intros s i pc' I1 [Gl L] HW TC EK. apply cedge2_typed in EK; rename EK into T.
  destruct (ct_reltr _ _ _ T eq_refl) as [NTO [NOK TO]].
  pose proof (tropen_cTl _ TO) as CT.
  assert (TLI : tl s = Some i) by (apply (lc6a _ _ _ (L i)); auto).
  set (s1 := set_trown (set_wl s WFree) None).
  apply inv2_actor.
  - intros j NE. apply (loc_chg s _ j _ (L j)); chg.
    + intros; discriminate.
    + exfalso. match goal with H : trc s1 _ _ = true |- _ => rewrite (trc_none s1) in H by reflexivity; discriminate end.
    + intros X Y. exfalso. pose proof (lc6a _ _ _ (L j) (tropen_cTl _ X) Y). congruence.
    + intro X; discriminate.
  - pose proof (L i) as [A1 A2 A3a A3b A4b A5a A5b A8 A6a A6 A7 A9].
    pose proof (ct_W23' _ _ _ T) as W'. pose proof (ct_W23 _ _ _ T) as W.
    constructor; simpl.
    + intro X. discriminate (ct_trigw _ _ _ T _ X).
    + intro X. discriminate (ct_trigw _ _ _ T _ X).
    + split; intro X; [subst pc'; discriminate W' | apply A3a in X; rewrite X in W; discriminate W].
    + split; intro X; [subst pc'; discriminate W' | apply A3b in X; rewrite X in W; discriminate W].
    + intro X. discriminate (ct_WMs' _ _ _ T X).
    + intro X. apply A5a. exact (ct_keep_phase _ _ _ T eq_refl X).
    + intro X. apply A5b. destruct (ct_after _ _ _ T X) as [Y | Y]; [exact Y | discriminate Y].
    + intros; discriminate.
    + intros X Y. rewrite (trc_none s1) in Y by reflexivity. discriminate.
    + intro X. congruence.
    + intro X. discriminate.
    + intro X. specialize (A9 X). destruct (ot_phase pc') eqn:O; auto.
      destruct (ct_ot _ _ _ T O) as [Y | Y]; [congruence | discriminate Y].
  - apply (glob_move _ _ LRelWTr); auto. destruct Gl. constructor; simpl; auto.
    + split; [intro X; discriminate | intro X; congruence].
    + intro X; discriminate.
    + intro A. exfalso. destruct (ggl4 A) as [h [Hh _]]. congruence.
Qed.

(* SetReadOnly hands the write lock (with ErrReadOnly) to compactionError *)
Lemma step_setro : forall s i pc', inv1 s -> inv2' s -> wl s = WHeld (PCli i) ->
  (ce s = E_no \/ ce s = E_has) ->
  cedge1_ok (cli s i) (LSendErrSetRO, pc') = true ->
  cedge2_ok (cli s i) (LSendErrSetRO, pc') = true ->
  inv2' (set_pc (set_locking (set_wl (set_ce s E_per) (WHeld PCE)) true) i pc').
Proof.
  intros s i pc' I1 I2 HW HE EK1 EK. pose proof I2 as [Gl L]. apply cedge2_typed in EK; rename EK into T.
  assert (TN : trown s = None) by (apply (glob_no_tr s Gl); congruence).
  apply (cedge1_dW _ _ _ true false) in EK1; [| reflexivity].
  destruct (holder_done s i pc' Gl HW) as [HP HM]; [exact (ct_keep_merge _ _ _ T eq_refl eq_refl) | tauto |].
  clear EK1.
  apply (inv2_before s); try reflexivity; auto.
  - intros j pc LJ _ _. apply (loc_chg s _ j pc LJ); chg. intros; discriminate.
  - apply (glob_move _ _ LSendErrSetRO); auto. destruct Gl. constructor; simpl; auto.
    + intro X; discriminate.
    + split; [intro X; discriminate | intro X; congruence].
    + intro X; discriminate.
    + intros [A | A]; congruence.
  - apply (typed_moves _ _ _ _ _ T). exact I.
Qed.

(* tr.lk taken by the client whose transaction is the open one *)
Lemma step_lockt : forall s i pc', inv1 s -> inv2' s -> tl s = None ->
  cedge2_ok (cli s i) (LLockT, pc') = true ->
  inv2' (set_pc (set_tl s (Some i)) i pc').
Proof.
  intros s i pc' I1 [Gl L] HT EK. apply cedge2_typed in EK; rename EK into T.
  apply (inv2_after s); try reflexivity.
  - intro j. apply (loc_chg _ _ j _ (L j)); chg. intro X. congruence.
  - apply (glob_move _ _ LLockT); auto. destruct Gl. constructor; simpl; auto.
  - apply (typed_moves _ _ _ _ _ T). right. reflexivity.
Qed.

(* tr.lk released by its holder *)
Lemma step_unlockt : forall s i pc', inv1 s -> inv2' s -> tl s = Some i ->
  cedge2_ok (cli s i) (LUnlockT, pc') = true ->
  inv2' (set_pc (set_tl s None) i pc').
Proof.
  intros s i pc' I1 I2 HT EK. pose proof I2 as [Gl L]. apply cedge2_typed in EK; rename EK into T.
  pose proof (ct_unlockt _ _ _ T eq_refl) as NT.
  apply (inv2_before s); try reflexivity; auto.
  - intros j pc LJ E1 E2. apply (loc_chg s _ j pc LJ); chg.
    intro X. exfalso. destruct (Nat.eq_dec j i) as [E | E].
    + subst j. rewrite (E1 eq_refl) in *. congruence.
    + congruence.
  - apply (glob_move _ _ LUnlockT); auto. destruct Gl. constructor; simpl; auto.
  - apply (typed_moves _ _ _ _ _ T). exact I.
Qed.

(* program counters that belong to no class of layer 3 (partners of the merge protocol move between them) *)
Definition plain (pc : cpc) : bool :=
  negb (is_trigw_any pc || is_WMs pc || closer_phase pc || cTl pc || tropen_pc pc || owner_ok pc || ot_phase pc).

Lemma is_trigw_any_of : forall b pc, is_trigw b pc = true -> is_trigw_any pc = true.
Proof. intros b pc; destruct pc; simpl; intro; try discriminate; reflexivity. Qed.

Lemma loc_plain : forall s s1 j q q', plain q = true -> plain q' = true -> loc s j q ->
  (q' = W2 <-> pend s1 = Some j) -> (q' = W3 <-> In j (merged s1)) ->
  trown s1 = trown s -> closetgt s1 = closetgt s ->
  loc s1 j q'.
Proof.
  intros s s1 j q q' P P' [A1 A2 A3a A3b A4b A5a A5b A8 A6a A6 A7 A9] H3a H3b ET EC.
  unfold plain in *. apply negb_true_iff in P. apply negb_true_iff in P'.
  repeat (apply orb_false_iff in P; destruct P as [P ?]).
  repeat (apply orb_false_iff in P'; destruct P' as [P' ?]).
  constructor; auto; try (intro X; congruence).
  - intro X. apply is_trigw_any_of in X. congruence.
  - intro X. apply is_trigw_any_of in X. congruence.
  - intro X. apply closer_after_phase in X. congruence.
  - intro X. rewrite ET in X. specialize (A7 X). congruence.
Qed.

(* a partner of the merge protocol moves between plain program counters *)
Lemma glob_plain : forall s n q', glob s -> closer_early (cli s n) = false -> mergephase (cli s n) = false ->
  closer_phase q' = false -> glob (set_pc s n q').
Proof. intros s n q' Gl H1 H2 H3. apply glob_set_pc; auto; intros; congruence. Qed.

(* the client in the merge phase holds the write lock *)
Lemma merge_holder : forall s i, inv1 s -> mergephase (cli s i) = true -> wl s = WHeld (PCli i).
Proof. intros s i I1 MP. apply wl_is_true. rewrite (i1_W s I1). apply mergephase_cW; auto. Qed.
Lemma WMs_merge : forall pc, is_WMs pc = true -> mergephase pc = true.
Proof. destruct pc; simpl; intro; try discriminate; reflexivity. Qed.
Lemma WMs_holder : forall s i j, inv1 s -> wl s = WHeld (PCli i) -> j <> i -> is_WMs (cli s j) = false.
Proof.
  intros s i j I1 HW NE. destruct (is_WMs (cli s j)) eqn:W; auto. exfalso.
  pose proof (merge_holder s j I1 (WMs_merge _ W)). congruence.
Qed.

(* the lock holder receives a merge request from client a *)
Lemma step_mergerecv : forall s i a pc' fits, inv1 s -> inv2' s -> cli s a = W1 true -> pend s = None ->
  cedge2_ok (cli s i) (LMergeRecv fits, pc') = true ->
  inv2' (set_pc (set_pend (set_pc s a W2) (Some a)) i pc').
Proof.
  intros s i a pc' fits I1 [Gl L] HA HP EK. apply cedge2_typed in EK; rename EK into T.
  assert (MP : mergephase (cli s i) = true).
  { destruct fits; [apply (ct_recv_fits _ _ _ T) | apply (ct_recv_over _ _ _ T)]; reflexivity. }
  pose proof (ct_keep_merge _ _ _ T eq_refl eq_refl MP) as MP'.
  assert (NE : a <> i) by (intro; subst; rewrite HA in MP; discriminate).
  pose proof (merge_holder s i I1 MP) as HWL.
  set (s1 := set_pend (set_pc s a W2) (Some a)).
  assert (LO : forall j, j <> a -> loc s1 j (cli s j)).
  { intros j NJ. apply (loc_chg s _ j _ (L j)); chg; try (intros; discriminate).
    - intro X; inversion X; congruence.
    - intro X; rewrite HP in X; discriminate. }
  assert (EQ : cli s1 i = cli s i) by (apply upd_other; auto).
  apply inv2_actor.
  - intros j NJ. simpl. destruct (upd_cases (cli s) a W2 j) as [[NA ->] | [-> ->]]; [apply LO; auto|].
    apply (loc_plain s s1 a (W1 true) W2); auto; try reflexivity.
    + rewrite <- HA. apply L.
    + simpl; tauto.
    + simpl. split; [discriminate|]. intro X. apply (lc3b _ _ _ (L a)) in X. congruence.
  - apply (loc_pure s1 i (cli s i)); [apply LO; auto | exact (gg12 s Gl) |].
    apply (typed_moves _ _ _ _ _ T). destruct fits; [discriminate | exact I].
  - rewrite <- EQ in T. refine (glob_move _ i _ pc' _ T eq_refl eq_refl eq_refl eq_refl).
    assert (G0 : glob (set_pc s a W2)) by (apply glob_plain; auto; rewrite HA; reflexivity).
    destruct G0. constructor; simpl; auto.
    intros _. exists i. split; auto. rewrite upd_other by auto. exact MP.
Qed.

Lemma remove_nat_in : forall a j l, j <> a -> (In j (remove_nat a l) <-> In j l).
Proof.
  induction l as [| x l IH]; simpl; intros NE; [tauto|].
  destruct (Nat.eqb x a) eqn:E.
  - apply Nat.eqb_eq in E; subst. split; intro H; auto. destruct H; [congruence | auto].
  - simpl. rewrite IH by auto. tauto.
Qed.
Lemma remove_nat_notin : forall a l, NoDup l -> ~ In a (remove_nat a l).
Proof.
  induction l as [| x l IH]; simpl; intros ND; [tauto|].
  inversion ND; subst. destruct (Nat.eqb x a) eqn:E.
  - apply Nat.eqb_eq in E; subst; auto.
  - simpl. apply Nat.eqb_neq in E. intros [H | H]; [congruence | apply IH; auto].
Qed.
Lemma remove_nat_nodup : forall a l, NoDup l -> NoDup (remove_nat a l).
Proof.
  induction l as [| x l IH]; simpl; intros ND; [constructor|].
  inversion ND; subst. destruct (Nat.eqb x a) eqn:E; auto.
  constructor; auto. intro H. destruct (Nat.eq_dec x a) as [->|NE]; [rewrite Nat.eqb_refl in E; discriminate|].
  apply remove_nat_in in H; auto.
Qed.

(* the lock holder answers a merge request: the requester is merged *)
Lemma step_mergedtrue : forall s i n pc', inv1 s -> inv2' s -> pend s = Some n -> cli s n = W2 ->
  cedge2_ok (cli s i) (LMergedTrue, pc') = true ->
  inv2' (set_pc (set_pend (set_merged (set_pc s n W3) (n :: merged s)) None) i pc').
Proof.
  intros s i n pc' I1 [Gl L] HP HN EK. apply cedge2_typed in EK; rename EK into T.
  pose proof (WMs_merge _ (ct_mergedtrue _ _ _ T eq_refl)) as MP.
  pose proof (ct_keep_merge _ _ _ T eq_refl eq_refl MP) as MP'.
  assert (NE : n <> i) by (intro; subst; rewrite HN in MP; discriminate).
  pose proof (merge_holder s i I1 MP) as HWL.
  assert (NIN : ~ In n (merged s)) by (intro X; apply (lc3b _ _ _ (L n)) in X; congruence).
  set (s1 := set_pend (set_merged (set_pc s n W3) (n :: merged s)) None).
  assert (CHG : forall j pc, j <> n -> loc s j pc -> is_WMs pc = false -> loc s1 j pc).
  { intros j pc NJ LJ NW. apply (loc_chg s _ j pc LJ); unfold s1; chg; try (intros; discriminate); try congruence.
    intros [X | X]; [congruence | auto]. }
  assert (EQ : cli s1 i = cli s i) by (apply upd_other; auto).
  apply inv2_actor.
  - intros j NJ. simpl. destruct (upd_cases (cli s) n W3 j) as [[NA ->] | [-> ->]].
    + apply CHG; auto. apply (WMs_holder s i); auto.
    + apply (loc_plain s s1 n W2 W3); auto; try reflexivity.
      * rewrite <- HN. apply L.
      * simpl. split; intro; discriminate.
      * simpl. tauto.
  - apply CHG; auto.
    + apply (loc_pure s i (cli s i)); [apply L | exact (gg12 s Gl) | apply (typed_moves _ _ _ _ _ T); exact I].
    + destruct (is_WMs pc') eqn:W; auto. discriminate (ct_WMs' _ _ _ T W).
  - rewrite <- EQ in T. refine (glob_move _ i _ pc' _ T eq_refl eq_refl eq_refl eq_refl).
    assert (G0 : glob (set_pc s n W3)) by (apply glob_plain; auto; rewrite HN; reflexivity).
    destruct G0. constructor; simpl; auto.
    + constructor; auto.
    + intros _. exists i. split; auto. rewrite upd_other by auto. exact MP.
Qed.

Lemma mem_nat_in : forall a l, mem_nat a l = true -> In a l.
Proof.
  induction l as [| x l IH]; simpl; intro H; [discriminate|].
  apply orb_prop in H. destruct H as [H | H]; [left; apply Nat.eqb_eq in H; auto | right; auto].
Qed.

(* unlockWrite acknowledges one merged writer *)
Lemma step_ackone : forall s i a pc', inv1 s -> inv2' s -> In a (merged s) -> cli s a = W3 ->
  cedge2_ok (cli s i) (LAckOne, pc') = true ->
  inv2' (set_pc (set_merged (set_pc s a Ret) (remove_nat a (merged s))) i pc').
Proof.
  intros s i a pc' I1 [Gl L] HIN HA EK. apply cedge2_typed in EK; rename EK into T.
  assert (X0 : merged s <> []) by (intro E; rewrite E in HIN; destruct HIN).
  set (s1 := set_merged (set_pc s a Ret) (remove_nat a (merged s))).
  assert (CHG : forall j pc, j <> a -> loc s j pc -> loc s1 j pc).
  { intros j pc NJ LJ. apply (loc_chg s _ j pc LJ); unfold s1; chg; try (intros; discriminate); try congruence;
      try (apply remove_nat_in; auto). }
  assert (NE : a <> i).
  { intro; subst. pose proof (ct_W23 _ _ _ T) as W. rewrite HA in W. discriminate W. }
  assert (EQ : cli s1 i = cli s i) by (apply upd_other; auto).
  apply inv2_actor.
  - intros j NJ. simpl. destruct (upd_cases (cli s) a Ret j) as [[NA ->] | [-> ->]]; [apply CHG; auto|].
    apply (loc_plain s s1 a W3 Ret); auto; try reflexivity.
    + rewrite <- HA. apply L.
    + simpl. split; [discriminate|]. intro X. apply (lc3a _ _ _ (L a)) in X. congruence.
    + simpl. split; [discriminate|]. intro X. exfalso. eapply remove_nat_notin; eauto. apply (gg3n s Gl).
  - apply CHG; auto.
    apply (loc_pure s i (cli s i)); [apply L | exact (gg12 s Gl) | apply (typed_moves _ _ _ _ _ T); exact I].
  - rewrite <- EQ in T. refine (glob_move _ i _ pc' _ T eq_refl eq_refl eq_refl eq_refl).
    assert (G0 : glob (set_pc s a Ret)) by (apply glob_plain; auto; rewrite HA; reflexivity).
    destruct G0. constructor; simpl; auto.
    apply remove_nat_nodup; auto.
Qed.

(* unlockWrite hands the lock to the writer whose merge request overflowed *)
Lemma step_givew : forall s i n pc', inv1 s -> inv2' s -> wl s = WHeld (PCli i) -> merged s = [] ->
  pend s = Some n -> cli s n = W2 ->
  cedge1_ok (cli s i) (LGiveW, pc') = true ->
  cedge2_ok (cli s i) (LGiveW, pc') = true ->
  inv2' (set_pc (set_pend (set_pc (set_wl s (WHeld (PCli n))) n (WF true)) None) i pc').
Proof.
  intros s i n pc' I1 [Gl L] HWL HM HP HN EK1 EK. apply cedge2_typed in EK; rename EK into T.
  assert (TN : trown s = None) by (apply (glob_no_tr s Gl); congruence).
  set (s1 := set_pend (set_pc (set_wl s (WHeld (PCli n))) n (WF true)) None).
  assert (CHG : forall j pc, j <> n -> loc s j pc -> is_WMs pc = false -> loc s1 j pc).
  { intros j pc NJ LJ NW. apply (loc_chg s _ j pc LJ); unfold s1; chg; try (intros; discriminate); try congruence. }
  assert (NE : n <> i).
  { intro; subst. pose proof (ct_W23 _ _ _ T) as W. rewrite HN in W. discriminate W. }
  assert (EQ : cli s1 i = cli s i) by (apply upd_other; auto).
  apply inv2_actor.
  - intros j NJ. simpl. destruct (upd_cases (cli s) n (WF true) j) as [[NA ->] | [-> ->]].
    + apply CHG; auto. apply (WMs_holder s i); auto.
    + apply (loc_plain s s1 n W2 (WF true)); auto; try reflexivity.
      * rewrite <- HN. apply L.
      * simpl. split; intro; discriminate.
      * simpl. rewrite HM. simpl. split; [discriminate | tauto].
  - apply CHG; auto.
    + apply (loc_pure s i (cli s i)); [apply L | exact (gg12 s Gl) | apply (typed_moves _ _ _ _ _ T); exact I].
    + destruct (is_WMs pc') eqn:W; auto. discriminate (ct_WMs' _ _ _ T W).
  - rewrite <- EQ in T. apply glob_set_pc.
    + assert (G0 : glob (set_pc s n (WF true))) by (apply glob_plain; auto; rewrite HN; reflexivity).
      destruct G0. constructor; simpl; auto.
      * split; [intro X; discriminate | intro X; congruence].
      * intro X; discriminate.
      * rewrite HM. intros [X | X]; congruence.
    + exact (ct_keep_early _ _ _ T eq_refl).
    + simpl. rewrite HM. intros [X | X]; congruence.
    + exact (ct_keep_phase _ _ _ T eq_refl).
Qed.

Lemma no_bm_waiter : forall s j, glob s -> loc s j (cli s j) -> mc s = M0 -> is_trigw BM (cli s j) = false.
Proof.
  intros s j Gl LJ HM. destruct (is_trigw BM (cli s j)) eqn:E; auto.
  pose proof (lc1 _ _ _ LJ E) as X. rewrite (gg8 s Gl (or_introl HM)) in X. discriminate.
Qed.

(* a client sends a command with an ack channel to mCompaction *)
Lemma step_sendcmd_bm : forall s i pc' k, inv1 s -> inv2' s -> mc s = M0 ->
  cedge2_ok (cli s i) (LSendCmd BM k, pc') = true ->
  inv2' (set_pc (set_nexttk (set_ctk (set_mx (set_mc s M1) (Some (i, nexttk s))) (upd (ctk s) i (nexttk s))) (S (nexttk s))) i pc').
Proof.
  intros s i pc' k I1 [Gl L] HM EK. apply cedge2_typed in EK; rename EK into T.
  destruct (ct_sendcmd _ _ _ T) as (_ & _ & NT).
  apply (inv2_after s); try reflexivity.
  - intro j. pose proof (no_bm_waiter s j Gl (L j) HM) as NW.
    apply (loc_chg _ _ j _ (L j)); chg; try congruence.
    intros X Y. rewrite upd_other; auto. intro; subst j. apply is_trigw_any_of in X. congruence.
  - apply (glob_move _ _ (LSendCmd BM k)); auto. destruct Gl. constructor; simpl; auto; try (intros; discriminate).
    + intro A. destruct (gg7a A) as [X | X]; rewrite HM in X; discriminate.
    + intros [X | X]; discriminate.
  - apply (typed_moves _ _ _ _ _ T). simpl. rewrite upd_same. reflexivity.
Qed.

Lemma recv_cmd_pcs : forall t, t_recv_cmd t = true -> t = T1 \/ t = T2.
Proof. destruct t; simpl; intros; try discriminate; auto. Qed.
Lemma recv_cmd_facts : forall s, glob s -> t_recv_cmd (tc s) = true ->
  tx s = None /\ is_TP (tc s) = false /\ t_exited (tc s) = false.
Proof.
  intros s Gl HR. destruct (recv_cmd_pcs _ HR) as [E | E]; rewrite E; repeat split; auto;
    apply (gg9a s Gl); rewrite E; reflexivity.
Qed.

(* a client sends a command with an ack channel to tCompaction *)
Lemma step_sendcmd_bt : forall s i pc' k, inv1 s -> inv2' s -> t_recv_cmd (tc s) = true ->
  cedge2_ok (cli s i) (LSendCmd BT k, pc') = true ->
  inv2' (set_pc (set_nexttk (set_ctk (set_tx (set_tc s (T3 k)) (Some (i, nexttk s))) (upd (ctk s) i (nexttk s))) (S (nexttk s))) i pc').
Proof.
  intros s i pc' k I1 [Gl L] HR EK. apply cedge2_typed in EK; rename EK into T.
  destruct (ct_sendcmd _ _ _ T) as (KN & _ & NT).
  destruct (recv_cmd_facts s Gl HR) as (TXN & NTP & NEX).
  assert (NW : forall j b, is_trigw b (cli s j) = true -> j <> i).
  { intros j b X E; subst j. apply is_trigw_any_of in X. congruence. }
  apply (inv2_after s); try reflexivity.
  - intro j. apply (loc_chg _ _ j _ (L j)); chg; try congruence.
    + rewrite upd_other; eauto.
    + intros X Y. rewrite upd_other by eauto. right. destruct Y as [Y | Y]; [congruence | exact Y].
  - apply (glob_move _ _ (LSendCmd BT k)); auto. destruct Gl. constructor; simpl; auto; try (intros; discriminate).
    + intro A. destruct (gg7b A) as [X | X]; auto. congruence.
    + intro X. destruct k; [elim KN; reflexivity | discriminate X | discriminate X].
    + intros [X | X]; discriminate.
  - apply (typed_moves _ _ _ _ _ T). left. simpl. rewrite upd_same. reflexivity.
Qed.

(* compTrigger: a non-blocking send that is taken *)
Lemma step_trysend_bm : forall s i pc', inv1 s -> inv2' s -> mc s = M0 ->
  cedge2_ok (cli s i) (LTrySendCmd BM, pc') = true ->
  inv2' (set_pc (set_mx (set_mc s M1) None) i pc').
Proof.
  intros s i pc' I1 [Gl L] HM EK. apply cedge2_typed in EK; rename EK into T.
  apply (inv2_after s); try reflexivity.
  - intro j. pose proof (no_bm_waiter s j Gl (L j) HM) as NW.
    apply (loc_chg _ _ j _ (L j)); chg; try congruence.
  - apply (glob_move _ _ (LTrySendCmd BM)); auto. destruct Gl. constructor; simpl; auto; try (intros; discriminate).
    intro A. destruct (gg7a A) as [X | X]; rewrite HM in X; discriminate.
  - apply (typed_moves _ _ _ _ _ T). exact I.
Qed.

Lemma step_trysend_bt : forall s i pc', inv1 s -> inv2' s -> t_recv_cmd (tc s) = true ->
  cedge2_ok (cli s i) (LTrySendCmd BT, pc') = true ->
  inv2' (set_pc (set_tx (set_tc s (T3 XNo)) None) i pc').
Proof.
  intros s i pc' I1 [Gl L] HR EK. apply cedge2_typed in EK; rename EK into T.
  destruct (recv_cmd_facts s Gl HR) as (TXN & NTP & NEX).
  apply (inv2_after s); try reflexivity.
  - intro j. apply (loc_chg _ _ j _ (L j)); chg; try congruence.
  - apply (glob_move _ _ (LTrySendCmd BT)); auto. destruct Gl. constructor; simpl; auto; try (intros; discriminate).
    + intro A. destruct (gg7b A) as [X | X]; auto. congruence.
    + intros [X | X]; discriminate.
  - apply (typed_moves _ _ _ _ _ T). exact I.
Qed.
