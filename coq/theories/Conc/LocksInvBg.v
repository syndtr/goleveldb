(* Conc/LocksInvBg.v — preservation of the protocol invariant inv2' (LocksDeadlock.v) by the steps of the
   background goroutines mCompaction, tCompaction and compactionError: one lemma per label (or per group of
   labels with the same effect on the shared state), assembled into inv2_step_m / inv2_step_t / inv2_step_ce.

   tCompaction's continuation points carry a parameter (tk); only some values occur (TP after a pause taken at
   T1/T2/TB1, TAx only from T3, TQ only from T1b/T2a): t_wf, a separate (trivial) invariant of all steps. *)
From GL Require Import Conc.Locks Conc.LocksProofs Conc.LocksDeadlock Conc.LocksInv.

Definition t_wf (pc : tpc) : bool :=
  match pc with
  | TP KT0 | TP (KTB1 _) => true | TP _ => false
  | TAx KT4 => true | TAx _ => false
  | TQ KT2 | TQ KT4 => true | TQ _ => false
  | _ => true
  end.

Lemma tedges_wf : forall pc, t_wf pc = true -> forallb (fun e => t_wf (snd e)) (tedges pc) = true.
Proof. intro pc; destruct pc; dparams; simpl; intro; try discriminate; reflexivity. Qed.

Lemma deliver_same : forall b ok w s,
  wl (deliver b ok w s) = wl s /\ tl (deliver b ok w s) = tl s /\ closed (deliver b ok w s) = closed s /\
  closeC (deliver b ok w s) = closeC s /\ trown (deliver b ok w s) = trown s /\
  closetgt (deliver b ok w s) = closetgt s /\ locking (deliver b ok w s) = locking s /\
  ctk (deliver b ok w s) = ctk s /\ merged (deliver b ok w s) = merged s /\ pend (deliver b ok w s) = pend s /\
  mc (deliver b ok w s) = mc s /\ mx (deliver b ok w s) = mx s /\ tc (deliver b ok w s) = tc s /\
  tx (deliver b ok w s) = tx s /\ tq (deliver b ok w s) = tq s /\ ce (deliver b ok w s) = ce s.
Proof.
  intros b ok [i n] s. unfold deliver.
  destruct (is_trigw b (cli s i) && Nat.eqb (ctk s i) n); simpl; repeat split; reflexivity.
Qed.

Lemma deliver_tc : forall b ok w s, tc (deliver b ok w s) = tc s.
Proof. intros. apply (deliver_same b ok w s). Qed.

Lemma recv_pause_wf : forall t k, t_recv_pause t = Some k -> t_wf (TP k) = true.
Proof. intros t k0 H; destruct t; simpl in H; try discriminate; inversion H; reflexivity. Qed.
Lemma tcont_wf : forall k, t_wf (TP k) = true -> t_wf (tcont k) = true.
Proof. destruct k; simpl; intros; try discriminate; reflexivity. Qed.

Lemma lsem_twf : forall p l arg s s1, lsem fixed p l arg s = Some s1 -> t_wf (tc s) = true -> t_wf (tc s1) = true.
Proof.
  intros p l arg s s1 H W. destruct l; simpl in H; unfold guard in H;
    repeat match type of H with context[match ?x with _ => _ end] => destruct x eqn:? end;
    try discriminate; inversion H; subst; simpl; rewrite ?deliver_tc; auto.
  - eapply recv_pause_wf; eauto.
  - apply tcont_wf. congruence.
Qed.

Lemma twf_step : forall s a s', t_wf (tc s) = true -> step fixed s a = Some s' -> t_wf (tc s') = true.
Proof.
  intros s a s' W H. destruct a; simpl in H.
  - destruct (nth_error (cedges fixed (cli s i)) k) as [[l pc']|]; try discriminate.
    destruct (lsem fixed (PCli i) l arg s) eqn:E; try discriminate. inversion H; subst. simpl. eapply lsem_twf; eauto.
  - destruct (nth_error (medges (mc s)) k) as [[l pc']|]; try discriminate.
    destruct (lsem fixed PM l 0 s) eqn:E; try discriminate. inversion H; subst. simpl. eapply lsem_twf; eauto.
  - destruct (nth_error (tedges (tc s)) k) as [[l pc']|] eqn:N; try discriminate.
    destruct (lsem fixed PT l 0 s) eqn:E; try discriminate. inversion H; subst. simpl.
    exact (nth_forallb _ _ _ _ (tedges_wf _ W) N).
  - unfold step_ce, guard in H.
    repeat match type of H with context[match ?x with _ => _ end] => destruct x eqn:? end;
      try discriminate; inversion H; subst; simpl; auto.
Qed.

Theorem twf_reachable : forall s, reachable fixed s -> t_wf (tc s) = true.
Proof. induction 1; [reflexivity | eapply twf_step; eauto]. Qed.

Lemma inv2_bg : forall s s',
  inv2' s ->
  cli s' = cli s -> mx s' = mx s -> ctk s' = ctk s -> tx s' = tx s -> tq s' = tq s -> pend s' = pend s ->
  merged s' = merged s -> closed s' = closed s -> closeC s' = closeC s -> wl s' = wl s -> tl s' = tl s ->
  trown s' = trown s -> closetgt s' = closetgt s -> locking s' = locking s ->
  (ce s' = E_done -> closeC s = true) -> (locking s = true -> ce s' = E_per) ->
  (m_exited (mc s') = true -> ce s' = E_per \/ closed s = true) ->
  (t_exited (tc s') = true -> ce s' = E_per \/ closed s = true) ->
  (is_TP (tc s') = true -> mpaused (mc s') = true \/ m_exited (mc s') = true) ->
  (mpaused (mc s') = true -> is_TP (tc s') = true \/ closeC s = true) ->
  ((mc s' = M0 \/ mc s' = MDone) -> mx s = None) ->
  (tx_none_pc (tc s') = true -> tx s = None) ->
  ((tc s' = T2 \/ tc s' = TDone) -> tq s = []) ->
  inv2' s'.
Proof.
  intros s s' [Gl L] E0 E1 E2 E3 E4 E5 E6 E7 E8 E9 E10 E11 E12 E13 H2 H3 H4 H5 H7a H7b H8 H9a H9b.
  split.
  - destruct Gl. constructor; rewrite ?E0, ?E1, ?E2, ?E3, ?E4, ?E5, ?E6, ?E7, ?E8, ?E9, ?E10, ?E11, ?E12, ?E13; auto.
  - intro j. rewrite E0. apply (loc_other s); auto.
Qed.

(* how compErrSetC changes the state of compactionError *)
Definition ce_step (c c' : epc) : Prop := c' = c \/ ((c = E_no \/ c = E_has) /\ c' <> E_done).

Lemma ce_after_step : forall e c c', ce_after e c = Some c' -> ce_step c c'.
Proof.
  intros e c c' H. right. destruct c; simpl in H; try discriminate; inversion H; split; auto; destruct e; discriminate.
Qed.
Lemma ce_step_done : forall c c', ce_step c c' -> c' = E_done -> c = E_done.
Proof. intros c c' [-> | [_ N]] H; auto; congruence. Qed.
Lemma ce_step_per : forall c c', ce_step c c' -> c = E_per -> c' = E_per.
Proof. intros c c' [-> | [[A | A] _]] H; auto; congruence. Qed.
Lemma ce_step_perc : forall c c' (X : Prop), ce_step c c' -> (c = E_per \/ X) -> (c' = E_per \/ X).
Proof. intros c c' X S [H | H]; auto. left. eapply ce_step_per; eauto. Qed.

(* the fields inv2' looks at, except mc, tc, ce *)
Definition same3 (s s1 : state) : Prop :=
  cli s1 = cli s /\ mx s1 = mx s /\ ctk s1 = ctk s /\ tx s1 = tx s /\ tq s1 = tq s /\ pend s1 = pend s /\
  merged s1 = merged s /\ closed s1 = closed s /\ closeC s1 = closeC s /\ wl s1 = wl s /\ tl s1 = tl s /\
  trown s1 = trown s /\ closetgt s1 = closetgt s /\ locking s1 = locking s.

(* a step of mCompaction that leaves tCompaction and all clients where they are *)
Lemma inv2_m : forall s s1 pc',
  inv2' s -> same3 s s1 -> tc s1 = tc s -> ce_step (ce s) (ce s1) ->
  (m_exited pc' = true -> m_exited (mc s) = true \/ ce s1 = E_per \/ closed s = true) ->
  (m_exited (mc s) = true -> m_exited pc' = true) ->
  (mpaused pc' = true -> mpaused (mc s) = true) ->
  (mpaused (mc s) = true -> mpaused pc' = true \/ m_exited pc' = true) ->
  ((pc' = M0 \/ pc' = MDone) -> mx s = None) ->
  inv2' (set_mc s1 pc').
Proof.
  intros s s1 pc' I (E0 & E1 & E2 & E3 & E4 & E5 & E6 & E7 & E8 & E9 & E10 & E11 & E12 & E13) ET CS X1 X2 P1 P2 M0D.
  pose proof I as [Gl _].
  apply (inv2_bg s); simpl; auto.
  - intro D. apply (gg2 s Gl). eapply ce_step_done; eauto.
  - intro K. eapply ce_step_per; eauto. apply (gg3 s Gl K).
  - intro X. destruct (X1 X) as [Y | [Y | Y]]; auto. eapply ce_step_perc; eauto. apply (gg4 s Gl Y).
  - rewrite ET. intro X. eapply ce_step_perc; eauto. apply (gg5 s Gl X).
  - rewrite ET. intro X. destruct (gg7a s Gl X) as [Y | Y]; auto.
  - rewrite ET. intro X. apply (gg7b s Gl). auto.
  - rewrite ET. apply (gg9a s Gl).
  - rewrite ET. apply (gg9b s Gl).
Qed.

(* a step of tCompaction that leaves mCompaction, its own command and queue, and all clients as they are *)
Lemma inv2_t : forall s s1 pc',
  inv2' s -> same3 s s1 -> mc s1 = mc s -> ce_step (ce s) (ce s1) ->
  (t_exited pc' = true -> t_exited (tc s) = true \/ ce s1 = E_per \/ closed s = true) ->
  (is_TP pc' = true -> is_TP (tc s) = true) ->
  (is_TP (tc s) = true -> is_TP pc' = true \/ closeC s = true) ->
  (tx_none_pc pc' = true -> tx s = None) ->
  ((pc' = T2 \/ pc' = TDone) -> tq s = []) ->
  inv2' (set_tc s1 pc').
Proof.
  intros s s1 pc' I (E0 & E1 & E2 & E3 & E4 & E5 & E6 & E7 & E8 & E9 & E10 & E11 & E12 & E13) EM CS X1 P1 P2 N1 N2.
  pose proof I as [Gl _].
  apply (inv2_bg s); simpl; auto.
  - intro D. apply (gg2 s Gl). eapply ce_step_done; eauto.
  - intro K. eapply ce_step_per; eauto. apply (gg3 s Gl K).
  - rewrite EM. intro X. eapply ce_step_perc; eauto. apply (gg4 s Gl X).
  - intro X. destruct (X1 X) as [Y | [Y | Y]]; auto. eapply ce_step_perc; eauto. apply (gg5 s Gl Y).
  - rewrite EM. intro X. apply (gg7a s Gl). auto.
  - rewrite EM. intro X. destruct (gg7b s Gl X) as [Y | Y]; auto.
  - rewrite EM. apply (gg8 s Gl).
Qed.

(* the waiter moves from the second select of compTriggerWait to the continuation of its call site *)
Definition ack_ok (pc : cpc) (ok : bool) : bool :=
  let pc' := after_ack ok pc in
  negb (is_trigw_any pc') && negb (is_W23 pc') && negb (is_WMs pc') && negb (closer_phase pc') &&
  negb (closer_phase pc) && negb (closer_has pc) && negb (is_W23 pc) && negb (in_close_ctx pc) && negb (in_close_ctx pc') &&
  implb (cTl pc') (cTl pc) && implb (tropen_pc pc') (tropen_pc pc) && implb (owner_ok pc) (owner_ok pc') &&
  implb (ot_phase pc') (ot_phase pc) && implb (mergephase pc) (mergephase pc').
Lemma ack_typed : forall pc ok, is_trigw_any pc = true -> ack_ok pc ok = true.
Proof. intros pc ok; destruct pc; intro; try discriminate; dparams; reflexivity. Qed.

Lemma is_trigw_any_false : forall b pc, is_trigw_any pc = false -> is_trigw b pc = false.
Proof. intros b pc H; destruct (is_trigw b pc) eqn:E; auto. apply is_trigw_any_of in E. congruence. Qed.

(* the acknowledged waiter leaves the second select by a typed move, to a point where it waits for no ack, and
   it is not the closing client *)
Lemma ack_moves : forall s i pc ok, is_trigw_any pc = true ->
  moves s i pc (after_ack ok pc) /\ is_trigw_any (after_ack ok pc) = false /\
  closer_phase pc = false /\ closer_phase (after_ack ok pc) = false /\
  (mergephase pc = true -> mergephase (after_ack ok pc) = true).
Proof.
  intros s i pc ok T. pose proof (ack_typed _ ok T) as A. unfold ack_ok in A. cbv zeta in A.
  rewrite !andb_true_iff, !negb_true_iff in A.
  destruct A as [[[[[[[[[[[[[A1 A2] A3] A4] A5] A6] A7] A8] A9] A10] A11] A12] A13] A14].
  split; [| repeat split; auto; exact (implb_elim _ _ A14)]. constructor.
  - intro X. apply is_trigw_any_of in X. congruence.
  - intro X. apply is_trigw_any_of in X. congruence.
  - exact A2.
  - exact A7.
  - intro X. congruence.
  - intro X. congruence.
  - intro X. apply closer_after_phase in X. congruence.
  - intro X. congruence.
  - intros _. congruence.
  - intro X. left. exact (implb_elim _ _ A10 X).
  - intro X. left. exact (implb_elim _ _ A11 X).
  - intro X. left. exact (implb_elim _ _ A12 X).
  - intro X. congruence.
  - intro X. left. exact (implb_elim _ _ A13 X).
Qed.

Lemma inv2_passive_ack : forall s i ok, inv2' s -> is_trigw_any (cli s i) = true ->
  inv2' (set_pc s i (after_ack ok (cli s i))).
Proof.
  intros s i ok I T. destruct (ack_moves s i _ ok T) as (M & _ & NP & NP' & KM).
  apply inv2_pure; auto.
  - intro X. apply closer_early_phase in X. congruence.
  - intro X. congruence.
Qed.

Lemma inv2_deliver : forall b ok w s, inv2' s -> inv2' (deliver b ok w s).
Proof.
  intros b ok [i n] s I. unfold deliver.
  destruct (is_trigw b (cli s i) && Nat.eqb (ctk s i) n) eqn:E; auto.
  apply andb_prop in E. destruct E as [E _]. apply inv2_passive_ack; auto. eapply is_trigw_any_of; eauto.
Qed.

(* after the delivery the addressee does not wait for this acknowledgement any more *)
Lemma deliver_gone : forall b ok i n s,
  is_trigw b (cli (deliver b ok (i, n) s) i) = false \/ ctk (deliver b ok (i, n) s) i <> n.
Proof.
  intros b ok i n s. unfold deliver.
  destruct (is_trigw b (cli s i) && Nat.eqb (ctk s i) n) eqn:E.
  - left. simpl. rewrite upd_same. apply andb_prop in E. destruct E as [E _].
    apply is_trigw_any_false. apply (ack_moves s i _ ok (is_trigw_any_of _ _ E)).
  - apply andb_false_iff in E. destruct E as [E | E]; auto. right. apply Nat.eqb_neq; auto.
Qed.

(* mCompaction changes its current command (all clients stay where they are) *)
Lemma inv2_m_x : forall s mx' pc',
  inv2' s ->
  (forall j, is_trigw BM (cli s j) = true -> mx' = mx s) ->
  (m_exited pc' = true -> m_exited (mc s) = true \/ ce s = E_per \/ closed s = true) ->
  (m_exited (mc s) = true -> m_exited pc' = true) ->
  (mpaused pc' = true -> mpaused (mc s) = true) ->
  (mpaused (mc s) = true -> mpaused pc' = true \/ m_exited pc' = true) ->
  ((pc' = M0 \/ pc' = MDone) -> mx' = None) ->
  inv2' (set_mc (set_mx s mx') pc').
Proof.
  intros s mx' pc' [Gl L] KX X1 X2 P1 P2 M0D. split.
  - destruct Gl. constructor; simpl; auto.
    + intro X. destruct (X1 X) as [Y | [Y | Y]]; auto.
    + intro X. destruct (gg7a X) as [Y | Y]; auto.
  - intro j. simpl. apply (loc_chg s _ j _ (L j)); simpl; auto; try tauto; try (intros; split; auto).
    eapply KX; eauto.
Qed.

(* tCompaction changes its current command / its queue (all clients stay where they are) *)
Lemma inv2_t_q : forall s tx' tq' pc',
  inv2' s ->
  (forall j, is_trigw BT (cli s j) = true -> (tx s = Some (j, ctk s j) \/ In (j, ctk s j) (tq s)) ->
             tx' = Some (j, ctk s j) \/ In (j, ctk s j) tq') ->
  (t_exited pc' = true -> t_exited (tc s) = true \/ ce s = E_per \/ closed s = true) ->
  (is_TP pc' = true -> is_TP (tc s) = true) ->
  (is_TP (tc s) = true -> is_TP pc' = true \/ closeC s = true) ->
  (tx_none_pc pc' = true -> tx' = None) ->
  ((pc' = T2 \/ pc' = TDone) -> tq' = []) ->
  inv2' (set_tc (set_tx (set_tq s tq') tx') pc').
Proof.
  intros s tx' tq' pc' [Gl L] KX X1 P1 P2 N1 N2. split.
  - destruct Gl. constructor; simpl; auto.
    + intro X. destruct (X1 X) as [Y | [Y | Y]]; auto.
    + intro X. destruct (gg7b X) as [Y | Y]; auto.
  - intro j. simpl. apply (loc_chg s _ j _ (L j)); simpl; auto; try tauto; try (intros; split; auto).
Qed.

(* labels on which a loop leaves: closeC, db.closed, a persistent error *)
Definition exit_lbl (l : lbl) : bool :=
  match l with LSeeClosed | LIfClosed true | LRecvPerr | LSendErrSet ECorr | LSendErrSet ERO => true | _ => false end.
Definition m_lbl (l : lbl) : bool :=
  match l with
  | LTau | LIfClosed _ | LSeeClosed | LRecvPerr | LSendErrSet _ | LLockC | LUnlockC | LCommitOk | LCommitFailW
  | LSendPause | LRecvResume | LTrySendCmd BT | LAck _ => true
  | _ => false
  end.
Definition is_M0D (pc : mpc) : bool := match pc with M0 | MDone => true | _ => false end.
Definition is_pause (l : lbl) : bool := match l with LSendPause => true | _ => false end.
Definition is_resume (l : lbl) : bool := match l with LRecvResume => true | _ => false end.
Definition is_ack (l : lbl) : bool := match l with LAck _ => true | _ => false end.

Definition medge2_ok (pc : mpc) (e : lbl * mpc) : bool :=
  let (l, pc') := e in
  m_lbl l &&
  implb (m_exited pc') (m_exited pc || exit_lbl l) &&
  implb (m_exited pc) (m_exited pc') &&
  implb (mpaused pc') (mpaused pc || is_pause l) &&
  implb (mpaused pc) (mpaused pc' || m_exited pc' || is_resume l) &&
  implb (is_pause l) (mpaused pc' && negb (m_exited pc') && negb (is_M0D pc')) &&
  implb (is_resume l) (negb (mpaused pc') && negb (m_exited pc') && negb (is_M0D pc')) &&
  implb (is_M0D pc') (is_ack l) &&
  match l with LTrySendCmd _ => negb (mpaused pc') && negb (m_exited pc') | _ => true end.

Lemma medges2_ok : forall pc, forallb (medge2_ok pc) (medges pc) = true.
Proof. intro pc; destruct pc; dparams; reflexivity. Qed.

Definition t_lbl (l : lbl) : bool :=
  match l with
  | LTau | LIfClosed _ | LSeeClosed | LRecvPerr | LSendErrSet _ | LLockC | LUnlockC | LCommitOk | LCommitFailW
  | LAck _ | LEnqueue | LAckQ _ | LQEmpty => true
  | _ => false
  end.
Definition is_T2D (pc : tpc) : bool := match pc with T2 | TDone => true | _ => false end.
Definition is_seeclosed (l : lbl) : bool := match l with LSeeClosed => true | _ => false end.

Definition tedge2_ok (pc : tpc) (e : lbl * tpc) : bool :=
  let (l, pc') := e in
  t_lbl l &&
  implb (t_exited pc') (t_exited pc || exit_lbl l) &&
  implb (is_TP pc') (is_TP pc) &&
  implb (is_TP pc) (is_TP pc' || is_seeclosed l) &&
  implb (tx_none_pc pc') (tx_none_pc pc || match l with LAck _ | LEnqueue => true | _ => false end) &&
  implb (is_T2D pc' && t_wf pc) (match l with LQEmpty | LAck false => true | _ => false end).

Lemma tedges2_ok : forall pc, forallb (tedge2_ok pc) (tedges pc) = true.
Proof. intro pc; destruct pc; dparams; reflexivity. Qed.

Lemma is_M0D_true : forall pc, pc = M0 \/ pc = MDone -> is_M0D pc = true.
Proof. intros pc [-> | ->]; reflexivity. Qed.
Lemma is_T2D_true : forall pc, pc = T2 \/ pc = TDone -> is_T2D pc = true.
Proof. intros pc [-> | ->]; reflexivity. Qed.

Lemma same3_refl : forall s, same3 s s.
Proof. intro s; repeat split; reflexivity. Qed.

Lemma guard_some : forall b s s1, guard b s = Some s1 -> b = true /\ s1 = s.
Proof. intros b s s1 H; destruct b; simpl in H; [inversion H; auto | discriminate]. Qed.
Ltac inv_some L := inversion L; subst; clear L.
Tactic Notation "inv_guard" hyp(L) ident(G) := apply guard_some in L; destruct L as [G ?]; subst.

(* the labels of the two loops that change nothing but (possibly) compactionError's state, compCommitLk and the
   manifest flag; an exit label comes with its reason *)
Definition frame_lbl (l : lbl) : bool :=
  match l with
  | LTau | LIfClosed _ | LSendErrSet _ | LRecvPerr | LSeeClosed | LLockC | LUnlockC | LCommitOk | LCommitFailW => true
  | _ => false
  end.
Lemma lsem_frame : forall p l s s1, glob s -> frame_lbl l = true -> lsem fixed p l 0 s = Some s1 ->
  same3 s s1 /\ mc s1 = mc s /\ tc s1 = tc s /\ ce_step (ce s) (ce s1) /\
  (exit_lbl l = true -> ce s1 = E_per \/ closed s = true) /\ (is_seeclosed l = true -> closeC s = true).
Proof.
  intros p l s s1 Gl FL L.
  assert (R : forall x, ce_step x x) by (left; reflexivity).
  destruct l; try discriminate FL; simpl in L.
  - inv_some L. repeat split; auto; discriminate.
  - inv_guard L G. apply Bool.eqb_prop in G. repeat split; auto; [| discriminate].
    destruct b; [right; congruence | discriminate].
  - destruct (ce_after e (ce s)) as [c|] eqn:CA; [|discriminate]. inv_some L.
    repeat split; simpl; eauto using ce_after_step; [| discriminate].
    intro X. left. destruct (ce s); simpl in CA; try discriminate; destruct e; try discriminate; inversion CA; reflexivity.
  - inv_guard L G. repeat split; auto; [| discriminate]. intros _. left. destruct (ce s); try discriminate; reflexivity.
  - inv_guard L G. repeat split; auto. intros _. right. exact (gg1 s Gl G).
  - inv_guard L G. repeat split; auto; discriminate.
  - inv_guard L G. repeat split; auto; discriminate.
  - inv_some L. repeat split; auto; discriminate.
  - inv_some L. repeat split; auto; discriminate.
Qed.

Lemma m_typing : forall pc l pc', medge2_ok pc (l, pc') = true ->
  m_lbl l = true /\
  (m_exited pc' = true -> m_exited pc = true \/ exit_lbl l = true) /\
  (m_exited pc = true -> m_exited pc' = true) /\
  (mpaused pc' = true -> mpaused pc = true \/ is_pause l = true) /\
  (mpaused pc = true -> mpaused pc' = true \/ m_exited pc' = true \/ is_resume l = true) /\
  (is_pause l = true -> mpaused pc' = true /\ m_exited pc' = false /\ is_M0D pc' = false) /\
  (is_resume l = true -> mpaused pc' = false /\ m_exited pc' = false /\ is_M0D pc' = false) /\
  (is_M0D pc' = true -> is_ack l = true) /\
  (match l with LTrySendCmd _ => mpaused pc' = false /\ m_exited pc' = false | _ => True end).
Proof.
  intros pc l pc' EK. unfold medge2_ok in EK. rewrite !andb_true_iff in EK.
  destruct EK as [[[[[[[[C1 C2] C3] C4] C5] C6] C7] C8] C9].
  split; [exact C1|]. split; [exact (implb_or _ _ _ C2)|]. split; [exact (implb_elim _ _ C3)|].
  split; [exact (implb_or _ _ _ C4)|]. split; [| split; [| split; [| split; [exact (implb_elim _ _ C8)|]]]].
  - intro X. destruct (implb_or _ _ _ C5 X) as [Y | Y]; auto. apply orb_prop in Y. tauto.
  - intro X. destruct (implb_and _ _ _ C6 X) as [Y B]. apply andb_prop in Y. destruct Y as [Y A].
    apply negb_true_iff in A. apply negb_true_iff in B. auto.
  - intro X. destruct (implb_and _ _ _ C7 X) as [Y B]. apply andb_prop in Y. destruct Y as [Y A].
    apply negb_true_iff in Y. apply negb_true_iff in A. apply negb_true_iff in B. auto.
  - destruct l; try exact I. apply andb_prop in C9. destruct C9 as [A B].
    apply negb_true_iff in A. apply negb_true_iff in B. auto.
Qed.

(* the labels that change nothing but (possibly) compactionError's state, compCommitLk, the manifest flag *)
Lemma m_frame_case : forall s s1 l pc',
  inv2' s -> same3 s s1 -> tc s1 = tc s -> ce_step (ce s) (ce s1) ->
  medge2_ok (mc s) (l, pc') = true -> is_pause l = false -> is_resume l = false -> is_ack l = false ->
  (exit_lbl l = true -> ce s1 = E_per \/ closed s = true) ->
  inv2' (set_mc s1 pc').
Proof.
  intros s s1 l pc' I S3 ET CS EK NP NR NA EX.
  destruct (m_typing _ _ _ EK) as (_ & A & B & C & D & _ & _ & E & _).
  apply (inv2_m s); auto.
  - intro X. destruct (A X) as [Y | Y]; auto.
  - intro X. destruct (C X) as [Y | Y]; [exact Y | congruence].
  - intro X. destruct (D X) as [Y | [Y | Y]]; [auto | auto | congruence].
  - intro X. apply is_M0D_true in X. apply E in X. congruence.
Qed.

Lemma recv_pause_cases : forall t k0, t_recv_pause t = Some k0 ->
  t_exited t = false /\ is_TP t = false /\ (tx_none_pc (TP k0) = true -> tx_none_pc t = true).
Proof. intros t k0 H; destruct t; simpl in H; try discriminate; inversion H; subst; repeat split; auto. Qed.

(* mCompaction hands its resume channel to tCompaction *)
Lemma m_pause_case : forall s k0 pc',
  inv2' s -> t_recv_pause (tc s) = Some k0 ->
  medge2_ok (mc s) (LSendPause, pc') = true ->
  inv2' (set_mc (set_tc s (TP k0)) pc').
Proof.
  intros s k0 pc' I RP EK. pose proof I as [Gl _].
  destruct (recv_pause_cases _ _ RP) as (TE & TP0 & TN).
  destruct (m_typing _ _ _ EK) as (_ & _ & _ & _ & _ & A & _).
  destruct (A eq_refl) as (MP & NX & NM).
  apply (inv2_bg s); simpl; auto.
  - apply (gg2 s Gl).
  - apply (gg3 s Gl).
  - intro X. congruence.
  - intro X. discriminate.
  - intro X. apply is_M0D_true in X. congruence.
  - intro X. apply (gg9a s Gl). auto.
  - intros [X | X]; discriminate.
Qed.

Lemma tcont_cases : forall k0, t_wf (TP k0) = true ->
  t_exited (tcont k0) = false /\ is_TP (tcont k0) = false /\ is_T2D (tcont k0) = false /\
  (tx_none_pc (tcont k0) = true -> tx_none_pc (TP k0) = true).
Proof. intros k0 H; destruct k0; simpl in H; try discriminate; dparams; repeat split; auto. Qed.

(* mCompaction is resumed by tCompaction *)
Lemma m_resume_case : forall s k0 pc',
  inv2' s -> tc s = TP k0 -> t_wf (tc s) = true ->
  medge2_ok (mc s) (LRecvResume, pc') = true ->
  inv2' (set_mc (set_tc s (tcont k0)) pc').
Proof.
  intros s k0 pc' I HT W EK. pose proof I as [Gl _]. rewrite HT in W.
  destruct (tcont_cases _ W) as (TE & TP0 & T2D & TN).
  destruct (m_typing _ _ _ EK) as (_ & _ & _ & _ & _ & _ & A & _).
  destruct (A eq_refl) as (MP & NX & NM).
  apply (inv2_bg s); simpl; auto.
  - apply (gg2 s Gl).
  - apply (gg3 s Gl).
  - intro X. congruence.
  - intro X. congruence.
  - intro X. congruence.
  - intro X. congruence.
  - intro X. apply is_M0D_true in X. congruence.
  - intro X. apply (gg9a s Gl). rewrite HT. auto.
  - intro X. apply is_T2D_true in X. congruence.
Qed.

(* mCompaction's non-blocking trigger of a table compaction, taken by tCompaction *)
Lemma m_trysend_case : forall s pc',
  inv2' s -> t_recv_cmd (tc s) = true ->
  medge2_ok (mc s) (LTrySendCmd BT, pc') = true ->
  inv2' (set_mc (set_tx (set_tc s (T3 XNo)) None) pc').
Proof.
  intros s pc' I HR EK. pose proof I as [Gl _].
  destruct (recv_cmd_facts s Gl HR) as (TXN & NTP & NEX).
  destruct (m_typing _ _ _ EK) as (_ & _ & _ & _ & _ & _ & _ & E & NP & NX).
  apply (inv2_bg s); simpl; auto.
  - apply (gg2 s Gl).
  - apply (gg3 s Gl).
  - intro X. congruence.
  - intro X. discriminate.
  - intro X. discriminate.
  - intro X. congruence.
  - intro X. apply is_M0D_true in X. apply E in X. discriminate.
  - intros [X | X]; discriminate.
Qed.

(* mCompaction acknowledges its current command *)
Lemma m_ack_case : forall s ok pc',
  inv2' s ->
  medge2_ok (mc s) (LAck ok, pc') = true ->
  inv2' (set_mc (match mx s with Some w => set_mx (deliver BM ok w s) None | None => s end) pc').
Proof.
  intros s ok pc' I EK.
  destruct (m_typing _ _ _ EK) as (_ & A & B & C & D & _).
  assert (TY : forall sA, mc sA = mc s -> ce sA = ce s -> closed sA = closed s ->
    (m_exited pc' = true -> m_exited (mc sA) = true \/ ce sA = E_per \/ closed sA = true) /\
    (m_exited (mc sA) = true -> m_exited pc' = true) /\
    (mpaused pc' = true -> mpaused (mc sA) = true) /\
    (mpaused (mc sA) = true -> mpaused pc' = true \/ m_exited pc' = true)).
  { intros sA E1 E2 E3. rewrite E1. repeat split; auto.
    - intro X. destruct (A X) as [Y | Y]; [auto | discriminate].
    - intro X. destruct (C X) as [Y | Y]; [auto | discriminate].
    - intro X. destruct (D X) as [Y | [Y | Y]]; [auto | auto | discriminate]. }
  destruct (mx s) as [[i n]|] eqn:HX.
  - pose proof (deliver_gone BM ok i n s) as DG.
    pose proof (inv2_deliver BM ok (i, n) s I) as IA.
    destruct (deliver_same BM ok (i, n) s) as (_ & _ & D3 & _ & _ & _ & _ & D8 & _ & _ & D11 & D12 & _ & _ & _ & D16).
    (* from here on the state after the delivery is an arbitrary sA with these facts, as inv2_m_x wants it
       (the same step is taken in t_ackq_case and t_ack_case) *)
    revert DG IA D3 D8 D11 D12 D16. generalize (deliver BM ok (i, n) s). intros sA DG IA D3 D8 D11 D12 D16.
    destruct (TY sA D11 D16 D3) as (T1 & T2 & T3 & T4).
    apply inv2_m_x; auto.
    intros j TJ. exfalso. destruct IA as [_ LA].
    pose proof (lc1 _ _ _ (LA j) TJ) as X. rewrite D12, HX in X. inversion X; subst.
    destruct DG as [Y | Y]; congruence.
  - destruct (TY s eq_refl eq_refl eq_refl) as (T1 & T2 & T3 & T4).
    apply (inv2_m s); auto using same3_refl.
    left; reflexivity.
Qed.

Lemma inv2_step_m : forall s k s', inv2' s -> t_wf (tc s) = true -> step fixed s (AM k) = Some s' -> inv2' s'.
Proof.
  intros s k s' I W H. simpl in H.
  destruct (nth_error (medges (mc s)) k) as [[l pc']|] eqn:N; [|discriminate].
  pose proof (nth_forallb _ _ _ _ (medges2_ok (mc s)) N) as EK.
  destruct (lsem fixed PM l 0 s) as [s1|] eqn:L; [|discriminate]. inversion H; subst s'; clear H N.
  pose proof I as [Gl _].
  assert (ML : m_lbl l = true) by apply (m_typing _ _ _ EK).
  destruct (frame_lbl l) eqn:FL.
  { destruct (lsem_frame _ _ _ _ Gl FL L) as (S3 & EM & ET & CS & EX & _).
    apply (m_frame_case s s1 l pc' I S3 ET CS EK); try exact EX; destruct l; try discriminate FL; reflexivity. }
  destruct l; try discriminate ML; try discriminate FL; simpl in L.
  - destruct b; [discriminate ML|]. inv_some L.
    destruct (t_recv_cmd (tc s)) eqn:HR.
    + apply m_trysend_case; auto.
    + eapply m_frame_case; eauto using same3_refl; try reflexivity; [left; reflexivity | intro; discriminate].
  - destruct (t_recv_pause (tc s)) as [k0|] eqn:RP; [|discriminate]. inv_some L. eapply m_pause_case; eauto.
  - destruct (tc s) eqn:HT; try discriminate. inv_some L. rewrite <- HT in W. eapply m_resume_case; eauto.
  - inv_some L. apply m_ack_case; auto.
Qed.

Definition is_ackenq (l : lbl) : bool := match l with LAck _ | LEnqueue => true | _ => false end.
Definition is_emptying (l : lbl) : bool := match l with LQEmpty | LAck false => true | _ => false end.

Lemma t_typing : forall pc l pc', tedge2_ok pc (l, pc') = true ->
  t_lbl l = true /\
  (t_exited pc' = true -> t_exited pc = true \/ exit_lbl l = true) /\
  (is_TP pc' = true -> is_TP pc = true) /\
  (is_TP pc = true -> is_TP pc' = true \/ is_seeclosed l = true) /\
  (tx_none_pc pc' = true -> tx_none_pc pc = true \/ is_ackenq l = true) /\
  (is_T2D pc' = true -> t_wf pc = true -> is_emptying l = true).
Proof.
  intros pc l pc' EK. unfold tedge2_ok in EK. rewrite !andb_true_iff in EK.
  destruct EK as [[[[[C1 C2] C3] C4] C5] C6].
  split; [exact C1|]. split; [exact (implb_or _ _ _ C2)|]. split; [exact (implb_elim _ _ C3)|].
  split; [exact (implb_or _ _ _ C4)|]. split; [exact (implb_or _ _ _ C5)|].
  intros X Y. rewrite X, Y in C6. exact C6.
Qed.

(* the facts tCompaction's own program counter contributes, from the typing of the edge *)
Lemma t_facts : forall s l pc' (c1 : epc),
  glob s -> tedge2_ok (tc s) (l, pc') = true -> t_wf (tc s) = true ->
  (exit_lbl l = true -> c1 = E_per \/ closed s = true) ->
  (c1 = ce s \/ ce s <> E_per) ->
  (is_seeclosed l = true -> closeC s = true) ->
  (t_exited pc' = true -> t_exited (tc s) = true \/ c1 = E_per \/ closed s = true) /\
  (is_TP pc' = true -> is_TP (tc s) = true) /\
  (is_TP (tc s) = true -> is_TP pc' = true \/ closeC s = true).
Proof.
  intros s l pc' c1 Gl EK W EX CE SC. destruct (t_typing _ _ _ EK) as (_ & A & B & C & _ & _).
  repeat split; auto.
  - intro X. destruct (A X) as [Y | Y]; auto.
  - intro X. destruct (C X) as [Y | Y]; auto.
Qed.

Lemma t_frame_case : forall s s1 l pc',
  inv2' s -> same3 s s1 -> mc s1 = mc s -> ce_step (ce s) (ce s1) -> t_wf (tc s) = true ->
  tedge2_ok (tc s) (l, pc') = true -> is_ackenq l = false -> is_emptying l = false ->
  (exit_lbl l = true -> ce s1 = E_per \/ closed s = true) ->
  (is_seeclosed l = true -> closeC s = true) ->
  inv2' (set_tc s1 pc').
Proof.
  intros s s1 l pc' I S3 EM CS W EK NA NE EX SC. pose proof I as [Gl _].
  destruct (t_typing _ _ _ EK) as (_ & A & B & C & D & E).
  apply (inv2_t s); auto.
  - intro X. destruct (A X) as [Y | Y]; auto.
  - intro X. destruct (C X) as [Y | Y]; auto.
  - intro X. destruct (D X) as [Y | Y]; [apply (gg9a s Gl Y) | congruence].
  - intro X. apply is_T2D_true in X. specialize (E X W). congruence.
Qed.

(* the queue has been emptied *)
Lemma t_qempty_case : forall s pc',
  inv2' s -> tq s = [] -> t_wf (tc s) = true -> tedge2_ok (tc s) (LQEmpty, pc') = true ->
  inv2' (set_tc s pc').
Proof.
  intros s pc' I HQ W EK. pose proof I as [Gl _].
  destruct (t_typing _ _ _ EK) as (_ & A & B & C & D & E). simpl in A, C, D.
  apply (inv2_t s); auto using same3_refl.
  - left; reflexivity.
  - intro X. destruct (A X) as [Y | Y]; [auto | discriminate].
  - intro X. destruct (C X) as [Y | Y]; [auto | discriminate].
  - intro X. destruct (D X) as [Y | Y]; [apply (gg9a s Gl Y) | discriminate].
Qed.

(* the current command joins the wait queue *)
Lemma t_enqueue_case : forall s w pc',
  inv2' s -> tx s = Some w -> t_wf (tc s) = true -> tedge2_ok (tc s) (LEnqueue, pc') = true ->
  inv2' (set_tc (set_tx (set_tq s (tq s ++ [w])) None) pc').
Proof.
  intros s w pc' I HX W EK. pose proof I as [Gl _].
  destruct (t_typing _ _ _ EK) as (_ & A & B & C & D & E). simpl in A, C, D, E.
  apply inv2_t_q; auto.
  - intros j TJ [X | X]; right; apply in_or_app; [right | left; auto].
    rewrite HX in X. inversion X. left; reflexivity.
  - intro X. destruct (A X) as [Y | Y]; [auto | discriminate].
  - intro X. destruct (C X) as [Y | Y]; [auto | discriminate].
  - intro X. apply is_T2D_true in X. specialize (E X W). discriminate.
Qed.

(* an acknowledgement to the first entry of the wait queue *)
Lemma t_ackq_case : forall s ok w rest pc',
  inv2' s -> tq s = w :: rest -> t_wf (tc s) = true -> tedge2_ok (tc s) (LAckQ ok, pc') = true ->
  inv2' (set_tc (set_tq (deliver BT ok w s) rest) pc').
Proof.
  intros s ok [i n] rest pc' I HQ W EK. pose proof I as [Gl _].
  destruct (t_typing _ _ _ EK) as (_ & A & B & C & D & E). simpl in A, C, D, E.
  pose proof (deliver_gone BT ok i n s) as DG.
  pose proof (inv2_deliver BT ok (i, n) s I) as IA.
  destruct (deliver_same BT ok (i, n) s) as (_ & _ & D3 & D4 & _ & _ & _ & D8 & _ & _ & D11 & D12 & D13 & D14 & D15 & D16).
  revert DG IA D3 D4 D8 D11 D12 D13 D14 D15 D16. generalize (deliver BT ok (i, n) s).
  intros sA DG IA D3 D4 D8 D11 D12 D13 D14 D15 D16.
  apply (inv2'_frame (set_tc (set_tx (set_tq sA rest) (tx sA)) pc')); [repeat split; reflexivity |].
  pose proof IA as [GA _]. rewrite <- D13 in A, B, C, D, E, W.
  apply inv2_t_q; auto.
  - intros j TJ [X | X]; auto. rewrite D15, HQ in X. destruct X as [X | X]; auto.
    exfalso. inversion X; subst. destruct DG as [Y | Y]; congruence.
  - intro X. destruct (A X) as [Y | Y]; [auto | discriminate].
  - intro X. destruct (C X) as [Y | Y]; [auto | discriminate].
  - intro X. destruct (D X) as [Y | Y]; [| discriminate]. apply (gg9a sA GA Y).
  - intro X. apply is_T2D_true in X. specialize (E X W). discriminate.
Qed.

(* an acknowledgement for the current command *)
Lemma t_ack_case : forall s ok pc',
  inv2' s -> ok || is_nil (tq s) = true -> t_wf (tc s) = true -> tedge2_ok (tc s) (LAck ok, pc') = true ->
  inv2' (set_tc (match tx s with Some w => set_tx (deliver BT ok w s) None | None => s end) pc').
Proof.
  intros s ok pc' I G W EK. pose proof I as [Gl _].
  destruct (t_typing _ _ _ EK) as (_ & A & B & C & D & E). simpl in A, C, D.
  assert (EQ : is_T2D pc' = true -> tq s = []).
  { intro X. specialize (E X W). destruct ok; simpl in E; [discriminate|]. simpl in G.
    destruct (tq s); [reflexivity | discriminate]. }
  destruct (tx s) as [[i n]|] eqn:HX.
  - pose proof (deliver_gone BT ok i n s) as DG.
    pose proof (inv2_deliver BT ok (i, n) s I) as IA.
    destruct (deliver_same BT ok (i, n) s) as (_ & _ & D3 & D4 & _ & _ & _ & D8 & _ & _ & D11 & D12 & D13 & D14 & D15 & D16).
    revert DG IA D3 D4 D8 D11 D12 D13 D14 D15 D16. generalize (deliver BT ok (i, n) s).
    intros sA DG IA D3 D4 D8 D11 D12 D13 D14 D15 D16.
    apply (inv2'_frame (set_tc (set_tx (set_tq sA (tq sA)) None) pc')); [repeat split; reflexivity |].
    rewrite <- D13 in A, B, C, D, E, W. rewrite <- D15 in EQ.
    apply inv2_t_q; auto.
    + intros j TJ [X | X]; auto. exfalso. rewrite D14, HX in X. inversion X; subst.
      destruct DG as [Y | Y]; congruence.
    + intro X. destruct (A X) as [Y | Y]; [auto | discriminate].
    + intro X. destruct (C X) as [Y | Y]; [auto | discriminate].
    + intro X. apply is_T2D_true in X. auto.
  - apply (inv2_t s); auto using same3_refl.
    + left; reflexivity.
    + intro X. destruct (A X) as [Y | Y]; [auto | discriminate].
    + intro X. destruct (C X) as [Y | Y]; [auto | discriminate].
    + intro X. apply is_T2D_true in X. auto.
Qed.

Lemma inv2_step_t : forall s k s', inv2' s -> t_wf (tc s) = true -> step fixed s (AT k) = Some s' -> inv2' s'.
Proof.
  intros s k s' I W H. simpl in H.
  destruct (nth_error (tedges (tc s)) k) as [[l pc']|] eqn:N; [|discriminate].
  pose proof (nth_forallb _ _ _ _ (tedges2_ok (tc s)) N) as EK.
  destruct (lsem fixed PT l 0 s) as [s1|] eqn:L; [|discriminate]. inversion H; subst s'; clear H N.
  pose proof I as [Gl _].
  assert (TL : t_lbl l = true) by apply (t_typing _ _ _ EK).
  destruct (frame_lbl l) eqn:FL.
  { destruct (lsem_frame _ _ _ _ Gl FL L) as (S3 & EM & ET & CS & EX & SC).
    apply (t_frame_case s s1 l pc' I S3 EM CS W EK); try exact EX; try exact SC; destruct l; try discriminate FL; reflexivity. }
  destruct l; try discriminate TL; try discriminate FL; simpl in L.
  - inv_guard L G. apply t_ack_case; auto.
  - destruct (tx s) as [w|] eqn:HX; [|discriminate]. inv_some L. apply t_enqueue_case; auto.
  - destruct (tq s) as [|w rest] eqn:HQ; [discriminate|]. inv_some L. eapply t_ackq_case; eauto.
  - inv_guard L G. apply t_qempty_case; auto. destruct (tq s); [reflexivity | discriminate].
Qed.

(* the write lock goes from free to compactionError, or from compactionError back to free *)
Lemma inv2_ce_wl : forall s w' lk' c',
  inv2' s -> (wl s = WFree \/ wl s = WHeld PCE) -> (w' = WFree \/ w' = WHeld PCE) ->
  (c' = E_done -> closeC s = true) -> (lk' = true -> c' = E_per) ->
  (ce s = E_per \/ closed s = true -> c' = E_per \/ closed s = true) ->
  inv2' (set_ce (set_locking (set_wl s w') lk') c').
Proof.
  intros s w' lk' c' [Gl L] HW HW' H2 H3 H45.
  assert (TN : trown s = None).
  { destruct (trown s) eqn:E; auto. assert (X : trown s <> None) by congruence. apply (gg10 s Gl) in X.
    destruct HW; congruence. }
  assert (NM : pend s = None /\ merged s = []).
  { destruct (pend s) eqn:EP; [| destruct (merged s) eqn:EM; auto];
      (destruct (ggl4 s Gl) as [h [Hh _]]; [first [left; congruence | right; congruence] | destruct HW; congruence]). }
  destruct NM as [PN MN].
  split.
  - destruct Gl. constructor; simpl; auto.
    + split; intro X; [destruct HW'; congruence | congruence].
    + intro X. destruct HW'; congruence.
    + intros [X | X]; congruence.
  - intro j. simpl. apply (loc_chg s _ j _ (L j)); simpl; auto; try tauto; try (intros; split; auto).
    intros _ _ _ X. destruct HW'; congruence.
Qed.

Lemma inv2_step_ce : forall s k s', inv1 s -> inv2' s -> step fixed s (ACE k) = Some s' -> inv2' s'.
Proof.
  intros s k s' I1 I H. simpl in H. unfold step_ce in H. pose proof I as [Gl _].
  destruct k as [|[|k]]; [| |destruct (ce s); discriminate].
  - destruct (ce s) eqn:HE; try discriminate. inv_guard H G. apply wl_free_true in G.
    apply (inv2'_frame (set_ce (set_locking (set_wl s (WHeld PCE)) true) E_per)); [repeat split; auto |].
    apply inv2_ce_wl; auto. intro; discriminate.
  - assert (G : closeC s = true /\ s' = set_ce (if (match ce s with E_per => true | _ => false end) && locking s
                       then set_locking (set_wl s WFree) false else s) E_done).
    { destruct (ce s); try discriminate; apply guard_some in H; destruct H; auto. }
    destruct G as [HC ->]. pose proof (gg1 s Gl HC) as HD.
    destruct ((match ce s with E_per => true | _ => false end) && locking s) eqn:E.
    + apply andb_prop in E. destruct E as [_ LK].
      destruct I1 as [_ _ _ IWCE _ _ _ _ _ _ _]. rewrite LK in IWCE. apply wl_is_true in IWCE.
      apply inv2_ce_wl; auto. intro; discriminate.
    + assert (LK : locking s = false).
      { destruct (locking s) eqn:LK; auto. rewrite (gg3 s Gl LK) in E. discriminate. }
      apply (inv2_bg s); simpl; auto; try (intro; discriminate); try congruence; destruct Gl; auto.
Qed.
