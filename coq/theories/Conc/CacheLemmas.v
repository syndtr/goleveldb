(* Conc/CacheLemmas.v — list-level lemmas about the primitives of Conc/Cache.v
   (find_id / find_key / upd_id / remove_id / insert_node, sums over nodes, counting in logs).
   Proof file. *)
From GL Require Import Conc.Cache.
From GL Require Mem.ListLemmas.
From Coq Require Import Lia Permutation.

Definition keyof (n : node) : N * N := (n_ns n, n_key n).
Definition ids (l : list node) : list N := map n_id l.

(* f changes neither the identity nor the key of a node *)
Definition pres (f : node -> node) : Prop :=
  forall n, n_id (f n) = n_id n /\ n_ns (f n) = n_ns n /\ n_key (f n) = n_key n.

Lemma pres_ref r : pres (nd_ref r). Proof. intro n; auto. Qed.
Lemma pres_val v z : pres (nd_val v z). Proof. intro n; auto. Qed.
Lemma pres_dels d : pres (nd_dels d). Proof. intro n; auto. Qed.
Lemma pres_lru l : pres (nd_lru l). Proof. intro n; auto. Qed.
Lemma pres_comp f g : pres f -> pres g -> pres (fun n => f (g n)).
Proof. intros Hf Hg n. destruct (Hf (g n)) as (a & b & c), (Hg n) as (a' & b' & c'). repeat split; congruence. Qed.
#[export] Hint Resolve pres_ref pres_val pres_dels pres_lru pres_comp : cache.

Lemma find_id_some l x n : find_id x l = Some n -> In n l /\ n_id n = x.
Proof.
  unfold find_id. intro H. apply find_some in H. destruct H as [H1 H2].
  apply N.eqb_eq in H2. auto.
Qed.

Lemma find_id_none l x : find_id x l = None -> ~ In x (ids l).
Proof.
  unfold find_id, ids. intros H Hin. apply in_map_iff in Hin. destruct Hin as (n & <- & Hn).
  eapply find_none in H; eauto. cbn in H. rewrite N.eqb_refl in H. discriminate.
Qed.

Lemma find_id_in l n : NoDup (ids l) -> In n l -> find_id (n_id n) l = Some n.
Proof.
  unfold find_id, ids. induction l as [|m l IH]; cbn; intros Hnd Hin; [tauto|].
  inversion Hnd as [|? ? Hnot Hnd']; subst.
  destruct Hin as [->|Hin].
  - now rewrite N.eqb_refl.
  - destruct (N.eqb_spec (n_id m) (n_id n)) as [e|ne].
    + exfalso. apply Hnot. rewrite e. apply in_map. exact Hin.
    + auto.
Qed.

Lemma find_id_some_iff l x n : NoDup (ids l) -> (find_id x l = Some n <-> In n l /\ n_id n = x).
Proof.
  intro Hnd. split; [apply find_id_some|]. intros [Hin <-]. now apply find_id_in.
Qed.

Lemma find_key_some l ns key n : find_key ns key l = Some n -> In n l /\ n_ns n = ns /\ n_key n = key.
Proof.
  unfold find_key, key_eqb. intro H. apply find_some in H. destruct H as [H1 H2].
  apply andb_true_iff in H2. destruct H2 as [a b]. apply N.eqb_eq in a, b. auto.
Qed.

Lemma find_key_none l ns key : find_key ns key l = None -> forall n, In n l -> keyof n <> (ns, key).
Proof.
  unfold find_key, key_eqb, keyof. intros H n Hin E. eapply find_none in H; eauto. cbn in H.
  inversion E; subst. rewrite !N.eqb_refl in H. discriminate.
Qed.

Lemma find_key_in l n : NoDup (map keyof l) -> In n l -> find_key (n_ns n) (n_key n) l = Some n.
Proof.
  unfold find_key, key_eqb. induction l as [|m l IH]; cbn; intros Hnd Hin; [tauto|].
  inversion Hnd as [|? ? Hnot Hnd']; subst.
  destruct Hin as [->|Hin].
  - now rewrite !N.eqb_refl.
  - destruct (N.eqb_spec (n_ns m) (n_ns n)) as [e|ne]; cbn; auto.
    destruct (N.eqb_spec (n_key m) (n_key n)) as [e'|ne']; cbn; auto.
    exfalso. apply Hnot. replace (keyof m) with (keyof n) by (unfold keyof; congruence).
    apply in_map. exact Hin.
Qed.

Lemma ids_upd x f l : pres f -> ids (upd_id x f l) = ids l.
Proof.
  intro Hf. unfold ids, upd_id. rewrite map_map. apply map_ext. intro n.
  destruct (n_id n =? x); auto. apply Hf.
Qed.

Lemma keys_upd x f l : pres f -> map keyof (upd_id x f l) = map keyof l.
Proof.
  intro Hf. unfold upd_id. rewrite map_map. apply map_ext. intro n.
  destruct (n_id n =? x); auto. unfold keyof. destruct (Hf n) as (_ & -> & ->). reflexivity.
Qed.

Lemma length_upd x f l : length (upd_id x f l) = length l.
Proof. unfold upd_id. apply map_length. Qed.

Lemma in_upd x f l m : In m (upd_id x f l) <-> exists n, In n l /\ m = (if n_id n =? x then f n else n).
Proof.
  unfold upd_id. rewrite in_map_iff. split; intros (n & a & b); exists n; auto.
Qed.

Lemma in_upd_other x f l m : In m l -> n_id m <> x -> In m (upd_id x f l).
Proof.
  intros Hin Hne. apply in_upd. exists m. split; auto. apply N.eqb_neq in Hne. now rewrite Hne.
Qed.

Lemma in_upd_same x f l n : In n l -> n_id n = x -> In (f n) (upd_id x f l).
Proof.
  intros Hin <-. apply in_upd. exists n. split; auto. now rewrite N.eqb_refl.
Qed.

Lemma fold_left_rel {A S} (R : S -> S -> Prop) (f : S -> A -> S) :
  (forall s, R s s) -> (forall a b c, R a b -> R b c -> R a c) -> (forall s x, R s (f s x)) ->
  forall l s, R s (fold_left f l s).
Proof. intros Hr Ht Hf. induction l as [|x l IH]; intro s; cbn; eauto. Qed.

Lemma in_ids n l : In n l -> In (n_id n) (ids l).
Proof. unfold ids. apply in_map. Qed.

Lemma same_id_eq l n m : NoDup (ids l) -> In n l -> In m l -> n_id n = n_id m -> n = m.
Proof.
  intros H Hn Hm E. pose proof (find_id_in l n H Hn) as A.
  pose proof (find_id_in l m H Hm) as B. rewrite E in A. congruence.
Qed.

Lemma in_upd_cases x f l n m : NoDup (ids l) -> In n l -> n_id n = x -> In m (upd_id x f l) ->
  m = f n \/ (In m l /\ n_id m <> x).
Proof.
  intros Hnd Hn Hx Hm. apply in_upd in Hm. destruct Hm as (m0 & Hm0 & ->).
  destruct (N.eqb_spec (n_id m0) x) as [e|ne]; [left|right; auto].
  f_equal. eapply same_id_eq; eauto. congruence.
Qed.

Lemma find_id_upd x f l y : pres f ->
  find_id y (upd_id x f l) =
  match find_id y l with Some n => Some (if n_id n =? x then f n else n) | None => None end.
Proof.
  intro Hf. unfold find_id, upd_id. induction l as [|m l IH]; cbn; auto.
  destruct (n_id m =? x) eqn:E.
  - destruct (Hf m) as (-> & _). destruct (n_id m =? y); auto. now rewrite E.
  - destruct (n_id m =? y); auto. now rewrite E.
Qed.

Lemma find_key_upd x f l ns key : pres f ->
  find_key ns key (upd_id x f l) =
  match find_key ns key l with Some n => Some (if n_id n =? x then f n else n) | None => None end.
Proof.
  intro Hf. unfold find_key, upd_id, key_eqb. induction l as [|m l IH]; cbn; auto.
  destruct (n_id m =? x) eqn:E.
  - destruct (Hf m) as (_ & -> & ->). destruct ((n_ns m =? ns) && (n_key m =? key)); auto. now rewrite E.
  - destruct ((n_ns m =? ns) && (n_key m =? key)); auto. now rewrite E.
Qed.

Lemma in_remove x l m : In m (remove_id x l) <-> In m l /\ n_id m <> x.
Proof.
  unfold remove_id. rewrite filter_In. rewrite negb_true_iff, N.eqb_neq. tauto.
Qed.

Lemma ids_remove_sub x l y : In y (ids (remove_id x l)) -> In y (ids l) /\ y <> x.
Proof.
  unfold ids. rewrite !in_map_iff. intros (n & <- & H). apply in_remove in H. destruct H. split; eauto.
Qed.

Lemma ids_remove_nodup x l : NoDup (ids l) -> NoDup (ids (remove_id x l)).
Proof. apply ListLemmas.NoDup_map_filter. Qed.
Lemma keys_remove_nodup x l : NoDup (map keyof l) -> NoDup (map keyof (remove_id x l)).
Proof. apply ListLemmas.NoDup_map_filter. Qed.

Lemma length_remove l n : NoDup (ids l) -> In n l -> S (length (remove_id (n_id n) l)) = length l.
Proof.
  unfold remove_id, ids. induction l as [|m l IH]; cbn; intros Hnd Hin; [tauto|].
  inversion Hnd as [|? ? Hnot Hnd']; subst. destruct Hin as [->|Hin].
  - rewrite N.eqb_refl. cbn. f_equal.
    rewrite ListLemmas.filter_all; auto.
    intros z Hz. apply negb_true_iff, N.eqb_neq. intro e. apply Hnot.
    rewrite <- e. now apply in_map.
  - destruct (N.eqb_spec (n_id m) (n_id n)) as [e|ne]; cbn.
    + exfalso. apply Hnot. rewrite e. now apply in_map.
    + f_equal. auto.
Qed.

Lemma insert_perm x l : Permutation (insert_node x l) (x :: l).
Proof.
  induction l as [|y l IH]; cbn; auto. destruct (key_ltb (n_ns x) (n_key x) y); auto.
  rewrite IH. apply perm_swap.
Qed.

Lemma in_insert x l m : In m (insert_node x l) <-> m = x \/ In m l.
Proof.
  split; intro H.
  - apply (Permutation_in _ (insert_perm x l)) in H. destruct H; auto.
  - apply (Permutation_in _ (Permutation_sym (insert_perm x l))). destruct H; [left|right]; auto.
Qed.

Lemma length_insert x l : length (insert_node x l) = S (length l).
Proof. apply (Permutation_length (insert_perm x l)). Qed.

Fixpoint nsum (g : node -> Z) (l : list node) : Z :=
  match l with [] => 0%Z | n :: l' => (g n + nsum g l')%Z end.

Definition ucontrib (n : node) : Z := if resident n then Z.of_N (n_size n) else 0%Z.
Definition scontrib (n : node) : Z := Z.of_N (n_size n).

Lemma used_sum_nsum l : used_sum l = nsum ucontrib l.
Proof.
  unfold used_sum, ucontrib. induction l as [|n l IH]; cbn; auto. rewrite <- IH.
  destruct (resident n); lia.
Qed.
Lemma size_sum_nsum l : size_sum l = nsum scontrib l.
Proof. unfold size_sum, scontrib. induction l as [|n l IH]; cbn; auto. now rewrite <- IH. Qed.

Lemma nsum_perm g l l' : Permutation l l' -> nsum g l = nsum g l'.
Proof. induction 1; cbn; lia. Qed.

Lemma nsum_insert g x l : nsum g (insert_node x l) = (g x + nsum g l)%Z.
Proof. rewrite (nsum_perm g _ _ (insert_perm x l)). reflexivity. Qed.

Lemma nsum_upd_notin g x f l : ~ In x (ids l) -> nsum g (upd_id x f l) = nsum g l.
Proof.
  unfold ids, upd_id. induction l as [|m l IH]; cbn; intro H; auto.
  destruct (N.eqb_spec (n_id m) x) as [e|ne]; [tauto|]. rewrite IH; tauto.
Qed.

Lemma nsum_upd g x f l n : NoDup (ids l) -> In n l -> n_id n = x ->
  nsum g (upd_id x f l) = (nsum g l - g n + g (f n))%Z.
Proof.
  unfold ids. induction l as [|m l IH]; cbn; intros Hnd Hin Hx; [tauto|].
  inversion Hnd as [|? ? Hnot Hnd']; subst. destruct Hin as [->|Hin].
  - rewrite N.eqb_refl. fold (upd_id (n_id n) f l). rewrite nsum_upd_notin by exact Hnot. lia.
  - destruct (N.eqb_spec (n_id m) (n_id n)) as [e|ne].
    + exfalso. apply Hnot. rewrite e. now apply in_map.
    + fold (upd_id (n_id n) f l). rewrite IH; auto. lia.
Qed.

Lemma nsum_remove_notin g x l : ~ In x (ids l) -> nsum g (remove_id x l) = nsum g l.
Proof.
  unfold ids, remove_id. induction l as [|m l IH]; cbn; intro H; auto.
  destruct (N.eqb_spec (n_id m) x) as [e|ne]; [tauto|]. cbn. rewrite IH; tauto.
Qed.

Lemma nsum_remove g l n : NoDup (ids l) -> In n l ->
  nsum g (remove_id (n_id n) l) = (nsum g l - g n)%Z.
Proof.
  unfold ids. induction l as [|m l IH]; cbn; intros Hnd Hin; [tauto|].
  inversion Hnd as [|? ? Hnot Hnd']; subst. destruct Hin as [->|Hin].
  - rewrite N.eqb_refl. cbn. fold (remove_id (n_id n) l). rewrite nsum_remove_notin by exact Hnot. lia.
  - destruct (N.eqb_spec (n_id m) (n_id n)) as [e|ne]; cbn.
    + exfalso. apply Hnot. rewrite e. now apply in_map.
    + fold (remove_id (n_id n) l). rewrite IH; auto. lia.
Qed.

Lemma nsum_nonneg g l : (forall n, 0 <= g n)%Z -> (0 <= nsum g l)%Z.
Proof. intro H. induction l as [|n l IH]; cbn; [lia|]. specialize (H n). lia. Qed.

Lemma nsum_ge_in g l n : (forall n, 0 <= g n)%Z -> In n l -> (g n <= nsum g l)%Z.
Proof.
  intros H. induction l as [|m l IH]; cbn; [tauto|]. intros [->|Hin].
  - pose proof (nsum_nonneg g l H). lia.
  - specialize (IH Hin). specialize (H m). lia.
Qed.

Definition hcount (nid : N) (hs : list (N * N)) : Z := Z.of_nat (handles_on nid hs).

Lemma hcount_nonneg x hs : (0 <= hcount x hs)%Z.
Proof. unfold hcount. lia. Qed.

Lemma hcount_cons h y x hs : hcount x ((h, y) :: hs) = ((if (y =? x)%N then 1 else 0) + hcount x hs)%Z.
Proof. unfold hcount, handles_on. cbn. destruct (y =? x); cbn [length]; lia. Qed.

Lemma hcount_pos_in x hs : (0 < hcount x hs)%Z <-> exists h, In (h, x) hs.
Proof.
  induction hs as [|[h y] hs IH].
  - cbn. split; [lia|]. intros (h & []).
  - rewrite hcount_cons. destruct (N.eqb_spec y x) as [->|ne].
    + pose proof (hcount_nonneg x hs). split; [|lia]. intros _. exists h. now left.
    + rewrite Z.add_0_l, IH. split; intros (h' & Hh); exists h'.
      * now right.
      * destruct Hh as [e|]; auto. inversion e; subst; tauto.
Qed.

Lemma hcount_zero_notin x hs : hcount x hs = 0%Z <-> forall h, ~ In (h, x) hs.
Proof.
  pose proof (hcount_nonneg x hs). pose proof (hcount_pos_in x hs) as P. split.
  - intros E h Hin. assert (0 < hcount x hs)%Z by (apply P; eauto). lia.
  - intro Hn. destruct (Z.eq_dec (hcount x hs) 0); auto.
    assert (0 < hcount x hs)%Z as Q by lia. apply P in Q. destruct Q as (h & Hh). now apply Hn in Hh.
Qed.

Definition hremove (h : N) (hs : list (N * N)) : list (N * N) := filter (fun q => negb (fst q =? h)) hs.

Lemma in_hremove h hs q : In q (hremove h hs) <-> In q hs /\ fst q <> h.
Proof. unfold hremove. rewrite filter_In, negb_true_iff, N.eqb_neq. tauto. Qed.

Lemma hremove_cons h q hs :
  hremove h (q :: hs) = if negb (fst q =? h) then q :: hremove h hs else hremove h hs.
Proof. reflexivity. Qed.

Lemma hremove_notin h hs : ~ In h (map fst hs) -> hremove h hs = hs.
Proof.
  intro Hnot. unfold hremove. apply ListLemmas.filter_all. intros q Hq.
  apply negb_true_iff, N.eqb_neq. intro e'. apply Hnot. rewrite <- e'. now apply in_map.
Qed.

Lemma hcount_hremove h x hs y : NoDup (map fst hs) -> In (h, x) hs ->
  hcount y (hremove h hs) = (hcount y hs - (if (x =? y)%N then 1 else 0))%Z.
Proof.
  induction hs as [|[h' x'] hs IH]; intros Hnd Hin; [destruct Hin|].
  cbn [map fst] in Hnd. inversion Hnd as [|? ? Hnot Hnd']; subst. rewrite hremove_cons. cbn [fst].
  destruct Hin as [e|Hin].
  - inversion e; subst. rewrite N.eqb_refl. cbn [negb]. rewrite hcount_cons.
    rewrite hremove_notin by exact Hnot. lia.
  - destruct (N.eqb_spec h' h) as [->|ne]; cbn [negb].
    + exfalso. apply Hnot. change h with (fst (h, x)). now apply in_map.
    + rewrite !hcount_cons, IH; auto. lia.
Qed.

Lemma find_handle_some h (hs : list (N * N)) p : find (fun p => fst p =? h) hs = Some p -> In p hs /\ fst p = h.
Proof. intro H. apply find_some in H. destruct H as [a b]. apply N.eqb_eq in b. auto. Qed.

Lemma find_handle_none h (hs : list (N * N)) : find (fun p => fst p =? h) hs = None -> forall x, ~ In (h, x) hs.
Proof. intros H x Hin. eapply find_none in H; eauto. cbn in H. rewrite N.eqb_refl in H. discriminate. Qed.

Lemma in_remove_order x l y : In y (remove_order x l) <-> In y l /\ y <> x.
Proof. unfold remove_order. rewrite filter_In, negb_true_iff, N.eqb_neq. tauto. Qed.

Lemma nodup_remove_order x l : NoDup l -> NoDup (remove_order x l).
Proof. unfold remove_order. apply NoDup_filter. Qed.

Lemma in_order_true x l : in_order x l = true <-> In x l.
Proof.
  unfold in_order. rewrite existsb_exists. split.
  - intros (y & Hy & e). apply N.eqb_eq in e. now subst.
  - intro H. exists x. split; auto. apply N.eqb_refl.
Qed.

Lemma count_ev_cons p e lg : count_ev p (e :: lg) = ((if p e then 1 else 0) + count_ev p lg)%nat.
Proof. unfold count_ev. cbn. destruct (p e); reflexivity. Qed.

Lemma count_ev_app p a b : count_ev p (a ++ b) = (count_ev p a + count_ev p b)%nat.
Proof. unfold count_ev. rewrite filter_app, app_length. reflexivity. Qed.

Lemma count_ev_zero p lg : count_ev p lg = 0%nat <-> forall e, In e lg -> p e = false.
Proof.
  unfold count_ev. induction lg as [|e lg IH]; cbn.
  - split; auto. intros _ e [].
  - destruct (p e) eqn:E; cbn.
    + split; [discriminate|]. intro H. specialize (H e (or_introl eq_refl)). congruence.
    + rewrite IH. split; intros H e'; [intros [<-|]; auto|]. intro. apply H. now right.
Qed.

Lemma count_ev_pos p lg : (0 < count_ev p lg)%nat <-> exists e, In e lg /\ p e = true.
Proof.
  unfold count_ev. split.
  - intro H. destruct (filter p lg) as [|e r] eqn:E; cbn in H; [lia|].
    assert (In e (filter p lg)) as Hin by (rewrite E; now left). apply filter_In in Hin. eauto.
  - intros (e & Hin & He). assert (In e (filter p lg)) as H by (apply filter_In; auto).
    destruct (filter p lg); cbn in *; [tauto|lia].
Qed.

Lemma count_dels_ev p ds lg :
  count_ev p (dels_ev ds lg) = (count_ev p (map EvDelRun ds) + count_ev p lg)%nat.
Proof.
  unfold dels_ev. rewrite count_ev_app. f_equal. unfold count_ev.
  rewrite <- (rev_length (filter p (map EvDelRun ds))).
  f_equal. induction (map EvDelRun ds) as [|e r IH]; cbn; auto.
  rewrite filter_app, IH. cbn. destruct (p e); cbn; auto. now rewrite app_nil_r.
Qed.

Lemma in_dels_ev e ds lg : In e (dels_ev ds lg) <-> (exists d, In d ds /\ e = EvDelRun d) \/ In e lg.
Proof.
  unfold dels_ev. rewrite in_app_iff, <- in_rev, in_map_iff.
  split; intros [(d & a & b)|H]; auto; left; exists d; auto.
Qed.

Lemma in_final_ev e v f lg : In e (final_ev v f lg) <-> (exists x, v = Some x /\ e = EvFinal x f) \/ In e lg.
Proof.
  destruct v as [x|]; cbn.
  - split; intros [H|H]; auto.
    + left. exists x. auto.
    + destruct H as (y & a & b). inversion a; subst. auto.
  - split; auto. intros [(x & a & _)|]; [discriminate|auto].
Qed.
