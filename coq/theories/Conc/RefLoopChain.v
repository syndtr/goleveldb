(* Conc/RefLoopChain.v — structural facts about the protocol state's version chain (ordering of ids,
   lookup, "a table that left the versions never comes back", positions of versions without a
   delta) and about the functions of the chain the invariant is stated with. *)
From Coq Require Import NArith List Bool Lia.
From GL Require Import Conc.RefLoop Conc.RefLoopLemmas Conc.RefLoopInv.
Import ListNotations.
Open Scope N_scope.

Lemma chain_wf_tail : forall c ch, chain_wf (c :: ch) -> chain_wf ch.
Proof. intros c ch H. cbn in H. tauto. Qed.

Lemma chain_wf_app : forall X Y, chain_wf (X ++ Y) -> chain_wf Y.
Proof. induction X as [|x X IH]; intros Y H; cbn in *; auto. apply IH. tauto. Qed.

Lemma chain_wf_head_lt : forall c ch, chain_wf (c :: ch) -> forall y, In y ch -> v_id y < v_id c.
Proof.
  intros c ch; revert c. induction ch as [|d ch IH]; intros c H y Hy; [contradiction|].
  cbn in H. destruct H as (_ & _ & _ & (Hlt & _ & _) & Hwf).
  destruct Hy as [<-|Hy]; auto.
  specialize (IH d Hwf y Hy). lia.
Qed.

Lemma chain_wf_sorted : forall X c Y, chain_wf (X ++ c :: Y) -> forall x, In x X -> v_id c < v_id x.
Proof.
  induction X as [|x0 X IH]; intros c Y H x Hx; [contradiction|].
  destruct Hx as [<-|Hx].
  - apply (chain_wf_head_lt x0 (X ++ c :: Y)); auto. apply in_or_app. right; left; auto.
  - apply (IH c Y); auto. apply chain_wf_tail in H. auto.
Qed.

Lemma chain_ids_nodup : forall ch, chain_wf ch -> NoDup (map v_id ch).
Proof.
  induction ch as [|c ch IH]; intros H; cbn; constructor.
  - intros Hi. apply in_map_iff in Hi. destruct Hi as (y & Hid & Hy). pose proof (chain_wf_head_lt c ch H y Hy). lia.
  - apply IH. apply (chain_wf_tail c ch H).
Qed.

Lemma chain_wf_older_lt : forall X c Y, chain_wf (X ++ c :: Y) -> forall y, In y Y -> v_id y < v_id c.
Proof. intros X c Y H. apply chain_wf_app in H. apply chain_wf_head_lt; auto. Qed.

Lemma chain_wf_elem : forall ch c, chain_wf ch -> In c ch ->
  NoDup (v_files c) /\ incl (v_late c) (v_files c) /\ (v_rel c = true -> has_delta c = true).
Proof.
  induction ch as [|x ch IH]; intros c H Hin; [contradiction|].
  destruct Hin as [<-|Hin]; [cbn in H; tauto|]. apply IH; auto. apply chain_wf_tail in H; auto.
Qed.

(* adjacent versions n (newer), c *)
Lemma chain_wf_adj : forall X n c Y, chain_wf (X ++ n :: c :: Y) ->
  match v_delta c with Some d => trans_ok c d n | None => v_late n = [] end /\
  (forall f, In f (v_files n) -> ~ In f (v_files c) -> forall x, In x (c :: Y) -> ~ In f (v_files x)).
Proof. intros X n c Y H. apply chain_wf_app in H. cbn in H. tauto. Qed.

Lemma chain_wf_oldest : forall X c, chain_wf (X ++ [c]) -> v_files c = [] /\ v_late c = [].
Proof.
  intros X c H. apply chain_wf_app in H. cbn in H. destruct H as (_ & Hl & _ & Hf & _).
  split; auto. rewrite Hf in Hl. destruct (v_late c) as [|x l]; auto. exfalso. apply (Hl x). left; auto.
Qed.

Lemma find_ver_In : forall ch v c, find_ver ch v = Some c -> In c ch /\ v_id c = v.
Proof.
  induction ch as [|x ch IH]; intros v c H; cbn in H; [discriminate|].
  destruct (v_id x =? v) eqn:E.
  - inversion H; subst. apply N.eqb_eq in E. split; auto. left; auto.
  - destruct (IH v c H). split; auto. right; auto.
Qed.

Lemma find_ver_None : forall ch v, find_ver ch v = None <-> (forall c, In c ch -> v_id c <> v).
Proof.
  induction ch as [|x ch IH]; intros v; cbn; [split; auto; intros; contradiction|].
  destruct (v_id x =? v) eqn:E.
  - apply N.eqb_eq in E. split; [discriminate|]. intros H. exfalso. apply (H x); auto.
  - apply N.eqb_neq in E. rewrite IH. split.
    + intros H c [<-|Hc]; auto.
    + intros H c Hc. apply H. right; auto.
Qed.

Lemma find_ver_of_In : forall ch c, chain_wf ch -> In c ch -> find_ver ch (v_id c) = Some c.
Proof.
  induction ch as [|x ch IH]; intros c H Hin; [destruct Hin|]. cbn. destruct Hin as [<-|Hin].
  - rewrite N.eqb_refl. reflexivity.
  - pose proof (chain_wf_head_lt x ch H c Hin). rewrite (proj2 (N.eqb_neq _ _)) by lia.
    apply IH; [apply (chain_wf_tail x ch H)|exact Hin].
Qed.

Lemma chain_id_inj : forall ch x y, chain_wf ch -> In x ch -> In y ch -> v_id x = v_id y -> x = y.
Proof.
  intros ch x y H Hx Hy E. pose proof (find_ver_of_In ch x H Hx) as Fx.
  pose proof (find_ver_of_In ch y H Hy) as Fy. rewrite E in Fx. congruence.
Qed.

Lemma find_ver_split : forall ch v c, find_ver ch v = Some c -> exists X Y, ch = X ++ c :: Y.
Proof. intros ch v c H. apply find_ver_In in H. destruct H as [H _]. apply in_split in H. auto. Qed.

(* lookup in a chain where the element with id (v_id c) was replaced by c' of the same id *)
Lemma find_ver_replace : forall X c c' Y v, chain_wf (X ++ c :: Y) -> v_id c' = v_id c ->
  find_ver (X ++ c' :: Y) v = if v_id c =? v then Some c' else find_ver (X ++ c :: Y) v.
Proof.
  induction X as [|x X IH]; intros c c' Y v H Hid; cbn.
  - rewrite Hid. destruct (v_id c =? v); auto.
  - assert (Hlt : v_id c < v_id x) by (apply (chain_wf_sorted (x :: X) c Y); auto; left; auto).
    destruct (v_id x =? v) eqn:E.
    + apply N.eqb_eq in E. destruct (v_id c =? v) eqn:E2; [apply N.eqb_eq in E2; lia|]. reflexivity.
    + apply IH; auto. apply chain_wf_tail in H; auto.
Qed.

(* a table that left the versions never comes back *)
Lemma gone_adj : forall X n c Y f, chain_wf (X ++ n :: c :: Y) ->
  In f (v_files c) -> ~ In f (v_files n) -> forall x, In x X -> ~ In f (v_files x).
Proof.
  induction X as [|x0 X IH]; intros n c Y f H Hc Hn x Hx; [contradiction|].
  assert (Htail : forall y, In y X -> ~ In f (v_files y)).
  { intros y Hy. apply (IH n c Y f); auto. apply chain_wf_tail in H; auto. }
  assert (H0 : ~ In f (v_files x0)).
  { intros Hf0.
    (* the version right after x0 does not hold f, yet c (older) does *)
    destruct X as [|z X'].
    - cbn in H. destruct H as (_ & _ & _ & (_ & _ & Hfresh) & _).
      apply (Hfresh f Hf0 Hn c); auto; try (right; left; reflexivity).
    - cbn in H. destruct H as (_ & _ & _ & (_ & _ & Hfresh) & _).
      apply (Hfresh f Hf0 (Htail z (or_introl eq_refl)) c); auto.
      right. apply in_or_app. right. right; left; reflexivity. }
  destruct Hx as [<-|Hx]; auto.
Qed.

Lemma gone : forall M X p c Y f, chain_wf (X ++ p :: M ++ c :: Y) ->
  In f (v_files c) -> ~ In f (v_files p) -> forall x, In x X -> ~ In f (v_files x).
Proof.
  induction M as [|m M IH] using rev_ind; intros X p c Y f H Hc Hp x Hx.
  - cbn in H. apply (gone_adj X p c Y f); auto.
  - rewrite <- app_assoc in H. cbn in H.
    destruct (in_dec N.eq_dec f (v_files m)) as [Hm|Hm].
    + apply (IH X p m (c :: Y) f); auto.
    + (* f left between c and m *)
      assert (H' : chain_wf ((X ++ p :: M) ++ m :: c :: Y)) by (rewrite <- app_assoc; cbn; auto).
      apply (gone_adj (X ++ p :: M) m c Y f H' Hc Hm). apply in_or_app. auto.
Qed.

Lemma nodelta_pos : forall X c Y, head_ok (X ++ c :: Y) -> v_delta c = None -> X = [] \/ exists h, X = [h].
Proof.
  intros X c Y H Hc. destruct X as [|h X]; auto. right.
  destruct X as [|h2 X]; eauto. exfalso.
  cbn in H. destruct H as (_ & _ & H). rewrite Forall_forall in H.
  assert (has_delta c = true) by (apply H; apply in_or_app; right; left; auto).
  unfold has_delta in H0. rewrite Hc in H0. discriminate.
Qed.

Lemma head_nodelta : forall c Y, head_ok (c :: Y) -> v_delta c = None /\ v_rel c = false.
Proof. intros c Y H. cbn in H. tauto. Qed.

Lemma applied_mono : forall nx c, applied nx c = true -> applied (nx + 1) c = true.
Proof.
  intros nx c H. unfold applied in *. apply andb_true_iff in H. destruct H as [H1 H2].
  rewrite H1. apply N.ltb_lt in H2. cbn. apply N.ltb_lt. lia.
Qed.

Lemma applied_step_neq : forall nx c, v_id c <> nx -> applied (nx + 1) c = applied nx c.
Proof.
  intros nx c H. unfold applied. rewrite ltb_step by exact H. reflexivity.
Qed.

Lemma hold1_step_neq : forall nx c f, v_id c <> nx -> hold1 (nx + 1) c f = hold1 nx c f.
Proof.
  intros nx c f H. unfold hold1. rewrite ltb_step by exact H. reflexivity.
Qed.

Lemma holds_app : forall X Y nx f, holds (X ++ Y) nx f = holds X nx f + holds Y nx f.
Proof. induction X as [|x X IH]; intros; cbn; auto. rewrite IH. lia. Qed.

Lemma holds_step_neq : forall ch nx f, (forall c, In c ch -> v_id c <> nx) -> holds ch (nx + 1) f = holds ch nx f.
Proof.
  induction ch as [|x ch IH]; intros nx f H; cbn; auto.
  rewrite hold1_step_neq by (apply H; left; auto). rewrite IH; auto. intros c Hc. apply H. right; auto.
Qed.

(* holds when [next] passes the id of c *)
Lemma holds_step_at : forall ch c f, chain_wf ch -> In c ch ->
  holds ch (v_id c + 1) f = holds ch (v_id c) f + (if negb (v_rel c) then ind (v_files c) f else 0).
Proof.
  intros ch c f H Hc. apply in_split in Hc. destruct Hc as (X & Y & ->). rewrite !holds_app. cbn.
  rewrite (holds_step_neq X) by (intros x Hx; pose proof (chain_wf_sorted X c Y H x Hx); lia).
  rewrite (holds_step_neq Y) by (intros y Hy; pose proof (chain_wf_older_lt X c Y H y Hy); lia).
  unfold hold1. rewrite N.ltb_irrefl, ltb_passed, andb_true_r, andb_false_r. lia.
Qed.

Lemma Un_cons : forall x ch nx f,
  Un (x :: ch) nx f <-> (applied nx x = false /\ In f (v_files x)) \/ Un ch nx f.
Proof.
  intros x ch nx f. unfold Un. split.
  - intros (y & [<-|Hy] & Ha & Hf); [left; auto|right; exists y; auto].
  - intros [[Ha Hf]|(y & Hy & Ha & Hf)]; [exists x|exists y]; repeat split; auto; [left|right]; auto.
Qed.

Lemma Un_intro : forall ch nx f x, In x ch -> applied nx x = false -> In f (v_files x) -> Un ch nx f.
Proof. intros. exists x. auto. Qed.

Lemma holds_ext : forall ch ch' nx f,
  Forall2 (fun c c' => v_id c' = v_id c /\ v_rel c' = v_rel c /\ v_files c' = v_files c) ch ch' ->
  holds ch' nx f = holds ch nx f.
Proof.
  intros ch ch' nx f H. induction H as [|c c' ch ch' (Hi & Hr & Hf) _ IH]; cbn; auto.
  unfold hold1. rewrite Hi, Hr, Hf, IH. reflexivity.
Qed.
