(* Conc/CacheTableProofs.v — the node table of Conc/CacheTable.v refines a finite map: invariant of the
   reachable tables, effect of every operation and of every background resize step on the logical
   contents [live], simulation by the map [mstep]; placement, enumeration, frozen buckets, resizes. *)
From GL Require Import Conc.CacheTable Conc.CacheTableLemmas Conc.CacheTableInv.
From GL Require Mem.ListLemmas.
From Coq Require Import Lia Permutation.

Section Proofs.
Variable hashf : N -> N -> N.
Variable P : tparams.
Hypothesis Pok : exists e, tp_init P = 2 ^ e.

Notation chain_ok := (chain_ok hashf).
Notation placed := (placed hashf).
Notation nodes_ok := (nodes_ok hashf).

Definition lives (hs : list head) : list tnode :=
  match hs with [] => [] | h :: _ => flat_map (content hs) (indices h) end.

Lemma live_lives : forall t, live t = lives (t_heads t).
Proof. reflexivity. Qed.

Lemma in_indices : forall h i, In i (indices h) <-> i < hlen h.
Proof. intros. unfold indices, hlen. apply in_seq_N. Qed.

Lemma content_placed : forall h rest i x, chain_ok (h :: rest) -> i < hlen h -> In x (content (h :: rest) i) ->
  placed h i x.
Proof. intros h rest i x Hok Hi Hx. apply (content_ok hashf h rest Hok i Hi). exact Hx. Qed.

Lemma in_lives : forall h rest x, chain_ok (h :: rest) ->
  (In x (lives (h :: rest)) <-> In x (content (h :: rest) (N.land (tn_hash x) (h_mask h)))).
Proof.
  intros h rest x Hok. unfold lives. rewrite in_flat_map. split.
  - intros [i [Hi Hx]]. apply in_indices in Hi.
    destruct (content_placed h rest i x Hok Hi Hx) as [<- _]. exact Hx.
  - intro Hx. eexists. split; [|exact Hx]. apply in_indices. apply land_mask_lt.
    eapply chain_ok_shape; eauto.
Qed.

Lemma lives_placed : forall h rest x, chain_ok (h :: rest) -> In x (lives (h :: rest)) ->
  tn_hash x = hashf (tn_ns x) (tn_key x).
Proof.
  intros h rest x Hok Hx. unfold lives in Hx. apply in_flat_map in Hx. destruct Hx as [i [Hi Hx]].
  apply in_indices in Hi. apply (content_placed h rest i x Hok Hi Hx).
Qed.

Lemma lives_keys_nodup : forall h rest, chain_ok (h :: rest) -> NoDup (map tkey (lives (h :: rest))).
Proof.
  intros h rest Hok. unfold lives. rewrite map_flat_map. apply NoDup_flat_map.
  - apply NoDup_seq_N.
  - intros i Hi. apply in_indices in Hi. eapply nodes_ok_nodup_keys. eapply content_ok; eauto.
  - intros i j k Hi Hj Hki Hkj. apply in_indices in Hi. apply in_indices in Hj.
    apply in_map_iff in Hki. apply in_map_iff in Hkj. destruct Hki as [x [Ex Hx]], Hkj as [y [Ey Hy]].
    eapply placed_same_key; [apply (content_placed h rest i x Hok Hi Hx)|apply (content_placed h rest j y Hok Hj Hy)|congruence].
Qed.

Lemma lives_nodup : forall h rest, chain_ok (h :: rest) -> NoDup (lives (h :: rest)).
Proof. intros h rest Hok. apply (NoDup_map_inv tkey), lives_keys_nodup, Hok. Qed.

Lemma lives_key_bucket : forall h rest ns key x, chain_ok (h :: rest) -> In x (lives (h :: rest)) ->
  tn_eq ns key x = true -> In x (content (h :: rest) (N.land (hashf ns key) (h_mask h))).
Proof.
  intros h rest ns key x Hok Hx He. pose proof (lives_placed _ _ _ Hok Hx) as Hh.
  apply tn_eq_spec in He. destruct He as [<- <-]. rewrite <- Hh. apply in_lives; auto.
Qed.

Lemma lives_ext : forall h rest h' rest', hlen h' = hlen h ->
  (forall i, i < hlen h -> content (h' :: rest') i = content (h :: rest) i) ->
  lives (h' :: rest') = lives (h :: rest).
Proof.
  intros h rest h' rest' Hl Hc. unfold lives.
  assert (E : indices h' = indices h) by (unfold indices, hlen in *; f_equal; f_equal; lia).
  rewrite E. apply flat_map_ext_in. intros i Hi. apply Hc. apply in_indices; auto.
Qed.

Definition top_ok (hs : list head) : Prop :=
  match hs with
  | [] => False
  | h :: rest => (forall i, b_state (bget h i) <> BFrozen) /\ h_resizing h = false /\
                 Forall (fun p => h_resizing p = true) rest
  end.

(* the head at depth d was created by resize number n - d *)
Definition ids_ok (hs : list head) (n : N) : Prop :=
  forall d id, nth_error (map h_id hs) d = Some id -> id + N.of_nat d = n.

Definition twf (t : table) : Prop :=
  t_panic t = false /\ chain_ok (t_heads t) /\ top_ok (t_heads t) /\
  ids_ok (t_heads t) (t_ngrow t + t_nshrink t) /\
  t_nodes t = Z.of_nat (length (live t)) /\
  NoDup (map tn_id (live t)) /\ (forall x, In x (live t) -> tn_id x < t_next t).

Lemma evolves_resizing : forall a b, evolves a b -> Forall (fun p => h_resizing p = true) a ->
  Forall (fun p => h_resizing p = true) b.
Proof.
  intros a b H. induction H; intros Hf; constructor; inversion Hf; subst; auto.
  destruct H as (_ & _ & _ & Hr & _). congruence.
Qed.

Lemma evolves_map_id : forall a b, evolves a b -> map h_id b = map h_id a.
Proof. intros a b H. induction H; simpl; auto. destruct H as (Hid & _). congruence. Qed.

(* the last three clauses of [twf]: statNodes counts the nodes, identities are pairwise different and
   below the next one to be handed out *)
Definition census (l : list tnode) (nodes : Z) (next : N) : Prop :=
  nodes = Z.of_nat (length l) /\ NoDup (map tn_id l) /\ forall x, In x l -> tn_id x < next.

Lemma census_perm : forall l l' nodes next, Permutation l l' -> census l nodes next -> census l' nodes next.
Proof.
  intros l l' nodes next Hp (Hn & Hnd & Hb). split; [|split].
  - rewrite <- (Permutation_length Hp). exact Hn.
  - eapply Permutation_NoDup; [apply Permutation_map; exact Hp|exact Hnd].
  - intros x Hx. apply Hb. eapply Permutation_in; [apply Permutation_sym; exact Hp|exact Hx].
Qed.

Lemma census_cons : forall a l nodes, census l nodes (tn_id a) -> census (a :: l) (nodes + 1)%Z (tn_id a + 1).
Proof.
  intros a l nodes (Hn & Hnd & Hb). split; [|split].
  - simpl length. lia.
  - simpl. constructor; [|exact Hnd]. intro Hin. apply in_map_iff in Hin. destruct Hin as [y [Ey Hy]].
    apply Hb in Hy. lia.
  - intros x [<-|Hx]; [lia|]. apply Hb in Hx. lia.
Qed.

Lemma census_tail : forall a l nodes next, census (a :: l) nodes next -> census l (nodes - 1)%Z next.
Proof.
  intros a l nodes next (Hn & Hnd & Hb). split; [|split].
  - simpl length in Hn. lia.
  - apply (NoDup_cons_iff (tn_id a)). exact Hnd.
  - intros x Hx. apply Hb. right. exact Hx.
Qed.

Lemma init_top : forall h rest i, chain_ok (h :: rest) -> top_ok (h :: rest) -> i < hlen h ->
  exists h1 rest1, init_bucket (length (h :: rest)) (h :: rest) i = (h1 :: rest1, false) /\
    chain_ok (h1 :: rest1) /\ top_ok (h1 :: rest1) /\ head_le h h1 /\ evolves rest rest1 /\
    (forall i', i' < hlen h -> content (h1 :: rest1) i' = content (h :: rest) i') /\
    lives (h1 :: rest1) = lives (h :: rest) /\
    b_state (bget h1 i) = BInit /\ b_nodes (bget h1 i) = content (h :: rest) i.
Proof.
  intros h rest i Hok Htop Hi.
  destruct (init_ok hashf (length (h :: rest)) h rest i (le_n _) Hok Hi)
    as (h1 & rest1 & E & Hok1 & Hle & Hev & Hc & Hs & Hfr).
  exists h1, rest1. destruct Htop as (Hnf & Hrz & Hall).
  assert (Hst : b_state (bget h1 i) = BInit).
  { destruct (b_state (bget h1 i)) eqn:Es; auto; [congruence|]. exfalso. apply (Hnf i). apply Hfr; auto. }
  split; [exact E|]. split; [exact Hok1|]. split.
  { split; [|split].
    - intros i' Hf. apply (Hnf i'). apply Hfr; auto.
    - destruct Hle as (_ & _ & _ & Hr & _). congruence.
    - eapply evolves_resizing; eauto. }
  split; [exact Hle|]. split; [exact Hev|]. split; [exact Hc|]. split.
  { apply lives_ext; auto. apply head_le_hlen; auto. }
  split; [exact Hst|].
  rewrite <- (Hc i Hi). rewrite content_cons_init by congruence. reflexivity.
Qed.

(* heads that differ only in the counters and flags *)
Definition same_core (h h' : head) : Prop :=
  h_buckets h' = h_buckets h /\ h_mask h' = h_mask h /\ h_pred h' = h_pred h.

Lemma same_core_bget : forall h h' i, same_core h h' -> bget h' i = bget h i.
Proof. intros h h' i (Hb & _). unfold bget. rewrite Hb. reflexivity. Qed.
Lemma same_core_hlen : forall h h', same_core h h' -> hlen h' = hlen h.
Proof. intros h h' (Hb & _). unfold hlen. rewrite Hb. reflexivity. Qed.

Lemma content_core : forall h h' rest i, same_core h h' -> content (h' :: rest) i = content (h :: rest) i.
Proof.
  intros h h' rest i Hc. rewrite !content_unfold1. rewrite (same_core_bget _ _ i Hc), (same_core_hlen _ _ Hc).
  destruct Hc as (_ & -> & _). reflexivity.
Qed.

Lemma lives_core : forall h h' rest, same_core h h' -> lives (h' :: rest) = lives (h :: rest).
Proof.
  intros. apply lives_ext; [apply same_core_hlen; auto|]. intros. apply content_core; auto.
Qed.

Lemma chain_ok_core : forall h h' rest, same_core h h' -> chain_ok (h :: rest) -> chain_ok (h' :: rest).
Proof.
  intros h h' rest Hc Hok. pose proof Hc as (Hb & Hm & Hp).
  apply (chain_ok_replace_head hashf h); auto.
  - intros i Hi Hs. rewrite (same_core_hlen _ _ Hc) in Hi. rewrite (same_core_bget _ _ i Hc) in *.
    destruct (chain_ok_head _ _ _ Hok i Hi Hs) as [Hso Hpl]. split; auto.
    intros x Hx. destruct (Hpl x Hx). split; auto. congruence.
  - apply same_core_hlen; auto.
  - intros i Hs. rewrite (same_core_bget _ _ i Hc). auto.
Qed.

Lemma in_lives_bset : forall h rest i nodes x, chain_ok (h :: rest) -> i < hlen h ->
  (In x (lives (bset h i (mkB BInit nodes) :: rest)) <->
   (In x nodes \/ (In x (lives (h :: rest)) /\ N.land (tn_hash x) (h_mask h) <> i))).
Proof.
  intros h rest i nodes x Hok Hi. unfold lives at 1. rewrite in_flat_map.
  assert (Eidx : forall j, In j (indices (bset h i (mkB BInit nodes))) <-> j < hlen h).
  { intro j. rewrite in_indices, hlen_bset. tauto. }
  split.
  - intros [j [Hj Hx]]. apply Eidx in Hj. rewrite content_bset in Hx by (auto; discriminate).
    destruct (N.eqb_spec j i); [left; auto|]. right.
    destruct (content_placed h rest j x Hok Hj Hx) as [Hl _].
    split; [|congruence]. unfold lives. apply in_flat_map. exists j. split; [apply in_indices|]; auto.
  - intros [Hx|[Hx Hne]].
    + exists i. split; [apply Eidx; auto|]. rewrite content_bset by (auto; discriminate). rewrite N.eqb_refl. auto.
    + exists (N.land (tn_hash x) (h_mask h)). split.
      * apply Eidx. apply land_mask_lt. eapply chain_ok_shape; eauto.
      * rewrite content_bset by (auto; discriminate). destruct (N.eqb_spec (N.land (tn_hash x) (h_mask h)) i); [contradiction|].
        apply in_lives; auto.
Qed.

Lemma bget_new_head : forall id n i, bget (new_head P id n) i = ubucket.
Proof.
  intros. unfold bget, new_head. simpl. destruct (Compare_dec.lt_dec (N.to_nat i) n).
  - apply nth_repeat'; auto.
  - apply nth_overflow. rewrite repeat_length. lia.
Qed.

Lemma hlen_new_head : forall id n, hlen (new_head P id n) = N.of_nat n.
Proof. intros. unfold hlen, new_head. simpl. rewrite repeat_length. reflexivity. Qed.

Lemma mask_new_head : forall id n, h_mask (new_head P id n) = N.of_nat n - 1.
Proof. reflexivity. Qed.

Lemma in_content_in_lives : forall h rest i x, i < hlen h -> In x (content (h :: rest) i) -> In x (lives (h :: rest)).
Proof. intros. unfold lives. apply in_flat_map. exists i. split; [apply in_indices|]; auto. Qed.

Lemma shape_new_head : forall id n e, N.of_nat n = 2 ^ e -> shape (new_head P id n) e.
Proof.
  intros id n e E. split; [rewrite mask_new_head, E; apply ones_pred|rewrite hlen_new_head; exact E].
Qed.

Lemma push_ok : forall nh h rest, chain_ok (h :: rest) -> link nh h -> (forall i, bget nh i = ubucket) ->
  h_pred nh = true -> chain_ok (nh :: h :: rest) /\ Permutation (lives (nh :: h :: rest)) (lives (h :: rest)).
Proof.
  intros nh h rest Hok Hlink Hu Hp.
  assert (Hok' : chain_ok (nh :: h :: rest)).
  { split; [|split; [split; auto|exact Hok]]. intros i Hi Hs. rewrite Hu in Hs. simpl in Hs. congruence. }
  split; [exact Hok'|].
  apply NoDup_Permutation; [apply lives_nodup; auto|apply lives_nodup; auto|].
  intro x. rewrite (in_lives _ _ _ Hok'), (in_lives _ _ _ Hok).
  rewrite content_unfold, Hu. simpl b_state. cbv iota.
  destruct (link_cases _ _ Hlink) as [[Hlt [e [[Hnm Hnl] [Hm Hl]]]]|[Hlt [e [[Hnm Hnl] [Hm Hl]]]]]; rewrite Hlt, Hnm, Hm.
  - rewrite filter_In, N.eqb_eq, <- land_coarsen. tauto.
  - rewrite Hnl, sort_nodes_in, in_app_iff.
    assert (Hlt' : N.land (tn_hash x) (N.ones e) < 2 ^ e) by apply land_ones_lt.
    split.
    + assert (Hown : forall j, j < hlen h -> In x (content (h :: rest) j) ->
                In x (content (h :: rest) (N.land (tn_hash x) (N.ones (e + 1))))).
      { intros j Hj Hx. rewrite <- Hm. destruct (content_placed h rest j x Hok Hj Hx) as [-> _]. exact Hx. }
      intros [Hx|Hx]; apply Hown in Hx; auto; rewrite Hl, pow_succ1; lia.
    + intro Hx. destruct (land_refine (tn_hash x) e) as [E|E]; rewrite E in Hx; auto.
Qed.

Definition R (t : table) (m : kmap) : Prop :=
  twf t /\ Permutation (live t) (km_nodes m) /\ km_next m = t_next t.

(* the table's answer against the map's: enumerations agree up to order; for a background resize step the map has
   nothing to do and always answers [RBg true], so whether the step was enabled is not compared *)
Definition res_match (r r' : tres) : Prop :=
  match r, r' with
  | REnum l, REnum l' => Permutation l l'
  | RBg _, RBg _ => True
  | _, _ => r = r'
  end.

Lemma twf_heads : forall t, twf t -> exists h rest, t_heads t = h :: rest.
Proof.
  intros t (_ & Hok & _). destruct (t_heads t) as [|h rest]; [destruct Hok|eauto].
Qed.

Lemma find_agree : forall h rest m ns key, chain_ok (h :: rest) -> Permutation (lives (h :: rest)) m ->
  km_find ns key m = find (tn_eq ns key) (content (h :: rest) (N.land (hashf ns key) (h_mask h))).
Proof.
  intros h rest m ns key Hok Hperm. unfold km_find.
  assert (Hnd : NoDup (map tkey m)).
  { eapply Permutation_NoDup; [apply Permutation_map; exact Hperm|]. apply lives_keys_nodup; auto. }
  destruct (find (tn_eq ns key) (content _ _)) as [n|] eqn:Ef.
  - apply find_some in Ef. destruct Ef as [Hin He]. apply find_key_in; auto.
    eapply Permutation_in; [exact Hperm|]. eapply in_content_in_lives; eauto.
    apply land_mask_lt. eapply chain_ok_shape; eauto.
  - apply ListLemmas.find_none_intro. intros y Hy. destruct (tn_eq ns key y) eqn:He; auto. exfalso.
    apply Permutation_sym in Hperm. pose proof (Permutation_in _ Hperm Hy) as Hl.
    pose proof (lives_key_bucket _ _ _ _ _ Hok Hl He) as Hb.
    pose proof (find_none _ _ Ef y Hb). congruence.
Qed.

Lemma ids_ok_cons : forall h hs n, ids_ok hs n -> h_id h = n + 1 -> ids_ok (h :: hs) (n + 1).
Proof.
  intros h hs n Hi Hid d id Hn. destruct d as [|d]; simpl in Hn.
  - inversion Hn; subst. lia.
  - pose proof (Hi d id Hn). lia.
Qed.

Lemma ids_ok_same : forall hs hs' n, map h_id hs' = map h_id hs -> ids_ok hs n -> ids_ok hs' n.
Proof. intros hs hs' n E H. unfold ids_ok. rewrite E. exact H. Qed.

(* what a step does to the heads: at most one new head in front; the heads that were there keep their
   identity, and their frozen buckets are left exactly as they are *)
Definition hd_rel (k : nat) (hs hs' : list head) : Prop :=
  forall d h h', nth_error hs d = Some h -> nth_error hs' (k + d) = Some h' ->
    h_id h' = h_id h /\ forall i, b_state (bget h i) = BFrozen -> bget h' i = bget h i.
Definition step_struct (t t' : table) : Prop :=
  exists k, (k = 0 \/ k = 1)%nat /\ t_ngrow t' + t_nshrink t' = N.of_nat k + (t_ngrow t + t_nshrink t) /\
    hd_rel k (t_heads t) (t_heads t').

Lemma hd_rel_evolves : forall hs hs', evolves hs hs' -> hd_rel 0 hs hs'.
Proof.
  intros hs hs' H. induction H; intros d h h' Hn Hn'; [destruct d; discriminate|].
  destruct d as [|d]; simpl in *.
  - inversion Hn; inversion Hn'; subst. destruct H as (Hid & _ & _ & _ & _ & _ & _ & _ & Hb). split; auto.
    intros i Hf. specialize (Hb i). unfold bucket_le in Hb. rewrite Hf in Hb. exact Hb.
  - eapply IHForall2; eauto.
Qed.

Lemma hd_rel_head : forall h rest h2, h_id h2 = h_id h ->
  (forall j, b_state (bget h j) = BFrozen -> bget h2 j = bget h j) -> hd_rel 0 (h :: rest) (h2 :: rest).
Proof.
  intros h rest h2 Hid Hb d x x' Hn Hn'. destruct d as [|d]; simpl in *.
  - inversion Hn; inversion Hn'; subst. auto.
  - rewrite Hn in Hn'. inversion Hn'; subst. auto.
Qed.

Lemma hd_rel_push : forall hs hs' x, hd_rel 0 hs hs' -> hd_rel 1 hs (x :: hs').
Proof. intros hs hs' x H d h h' Hn Hn'. simpl in Hn'. apply (H d h h'); auto. Qed.

Lemma hd_rel_trans : forall k hs hs1 hs', length hs1 = length hs -> hd_rel 0 hs hs1 -> hd_rel k hs1 hs' ->
  hd_rel k hs hs'.
Proof.
  intros k hs hs1 hs' Hlen H1 H2 d h h' Hn Hn'. destruct (nth_error hs1 d) as [h1|] eqn:E1.
  - destruct (H1 d h h1 Hn E1) as [Hid1 Hf1], (H2 d h1 h' E1 Hn') as [Hid2 Hf2].
    split; [congruence|]. intros i Hf. pose proof (Hf1 i Hf) as E. rewrite <- E. apply Hf2. rewrite E. exact Hf.
  - apply nth_error_None in E1. assert (Hd : (d < length hs)%nat) by (apply nth_error_Some; congruence). lia.
Qed.

Lemma struct_refl : forall t, step_struct t t.
Proof. intro t. exists O. split; [auto|]. split; [lia|]. apply hd_rel_evolves, evolves_refl. Qed.

Lemma struct_trans0 : forall t t1 t', length (t_heads t1) = length (t_heads t) ->
  hd_rel 0 (t_heads t) (t_heads t1) -> t_ngrow t1 + t_nshrink t1 = t_ngrow t + t_nshrink t ->
  step_struct t1 t' -> step_struct t t'.
Proof.
  intros t t1 t' Hlen Hr Hc (k & Hk & Hc' & Hr'). exists k. split; [exact Hk|]. split; [congruence|].
  eapply hd_rel_trans; eauto.
Qed.

Lemma struct_after : forall t hs1 t', evolves (t_heads t) hs1 -> step_struct (set_heads hs1 t) t' -> step_struct t t'.
Proof.
  intros t hs1 t' Hev. apply struct_trans0; [symmetry; apply (evolves_length _ _ Hev)| |reflexivity].
  apply hd_rel_evolves. exact Hev.
Qed.

Lemma struct_same : forall t hs', evolves (t_heads t) hs' -> step_struct t (set_heads hs' t).
Proof. intros t hs' Hev. apply (struct_after t hs' _ Hev), struct_refl. Qed.

Lemma twf_intro : forall hs nodes g s next, chain_ok hs -> top_ok hs -> ids_ok hs (g + s) ->
  census (lives hs) nodes next -> twf (mkT hs nodes g s next false).
Proof. intros hs nodes g s next Hok Htop Hids Hcen. exact (conj eq_refl (conj Hok (conj Htop (conj Hids Hcen)))). Qed.

Lemma twf_set_heads : forall t h rest hs', twf t -> t_heads t = h :: rest -> chain_ok hs' -> top_ok hs' ->
  evolves (h :: rest) hs' -> lives hs' = lives (h :: rest) ->
  twf (set_heads hs' t) /\ live (set_heads hs' t) = live t.
Proof.
  intros t h rest hs' (Hp & Hok & Htop & Hids & Hn & Hnd & Hb) Eh Hok' Htop' Hev Hl.
  assert (El : live (set_heads hs' t) = live t).
  { rewrite !live_lives. simpl. rewrite Eh. exact Hl. }
  split; [|exact El]. unfold twf. rewrite El. simpl. repeat split; auto.
  rewrite Eh in Hids. eapply ids_ok_same; [apply evolves_map_id; exact Hev|exact Hids].
Qed.

Lemma insert_bucket : forall h rest i n0, chain_ok (h :: rest) -> i < hlen h -> b_state (bget h i) = BInit ->
  find (tn_eq (tn_ns n0) (tn_key n0)) (b_nodes (bget h i)) = None ->
  tn_hash n0 = hashf (tn_ns n0) (tn_key n0) -> N.land (tn_hash n0) (h_mask h) = i ->
  let hB := bset h i (mkB BInit (sort_insert n0 (b_nodes (bget h i)))) in
  chain_ok (hB :: rest) /\ Permutation (lives (hB :: rest)) (n0 :: lives (h :: rest)).
Proof.
  intros h rest i n0 Hok Hi Hs Hf Hh Hl hB.
  assert (Hsne : b_state (bget h i) <> BUninit) by congruence.
  destruct (chain_ok_head _ _ _ Hok i Hi Hsne) as [Hso Hpl].
  assert (Hci : content (h :: rest) i = b_nodes (bget h i)) by (apply content_cons_init; auto).
  assert (Hnotin : ~ In n0 (lives (h :: rest))).
  { intro Hin. apply in_lives in Hin; auto. rewrite Hl, Hci in Hin.
    pose proof (find_none _ _ Hf n0 Hin) as X.
    assert (tn_eq (tn_ns n0) (tn_key n0) n0 = true) by (apply tn_eq_spec; auto). congruence. }
  assert (Hok' : chain_ok (hB :: rest)).
  { apply chain_ok_bset; auto; [discriminate|]. split.
    - apply sort_insert_sorted; auto. intros y Hy E.
      pose proof (find_none _ _ Hf y Hy) as X. apply tn_eq_false in X. unfold tkey in E. inversion E. tauto.
    - intros x Hx. apply sort_insert_in in Hx. destruct Hx as [->|Hx]; [split; auto|apply Hpl; auto]. }
  split; [exact Hok'|].
  apply NoDup_Permutation; [apply lives_nodup; auto|constructor; [auto|apply lives_nodup; auto]|].
  intro x. unfold hB. rewrite in_lives_bset by auto. rewrite sort_insert_in. simpl. split.
  - intros [[->|Hx]|[Hx _]]; auto. right. eapply in_content_in_lives; eauto. rewrite Hci; auto.
  - intros [<-|Hx]; auto.
    destruct (N.eq_dec (N.land (tn_hash x) (h_mask h)) i) as [E|E]; [|auto].
    left. right. apply in_lives in Hx; auto. rewrite E, Hci in Hx. exact Hx.
Qed.

(* Cache.getBucket on behalf of an operation on (ns, key) *)
Lemma ready_bucket : forall t m ns key, R t m ->
  exists h1 rest1, let i := N.land (hashf ns key) (h_mask h1) in
    get_bucket (hashf ns key) t = (set_heads (h1 :: rest1) t, i) /\
    R (set_heads (h1 :: rest1) t) m /\ evolves (t_heads t) (h1 :: rest1) /\
    i < hlen h1 /\ b_state (bget h1 i) = BInit /\ ssorted (b_nodes (bget h1 i)) /\
    km_find ns key (km_nodes m) = find (tn_eq ns key) (b_nodes (bget h1 i)).
Proof.
  intros t m ns key (Hwf & Hperm & Hnext). destruct (twf_heads t Hwf) as (h & rest & Eh).
  pose proof Hwf as (_ & Hok & Htop & _). rewrite Eh in Hok, Htop.
  assert (Hi : N.land (hashf ns key) (h_mask h) < hlen h) by (apply land_mask_lt; eapply chain_ok_shape; eauto).
  destruct (init_top h rest _ Hok Htop Hi) as (h1 & rest1 & E & Hok1 & Htop1 & Hle & Hev & _ & Hlv & Hst & Hbn).
  assert (Hev' : evolves (h :: rest) (h1 :: rest1)) by (constructor; auto).
  destruct (twf_set_heads t h rest (h1 :: rest1) Hwf Eh Hok1 Htop1 Hev' Hlv) as [Hwf1 Hl1].
  assert (Hi1 : N.land (hashf ns key) (h_mask h) < hlen h1) by (rewrite (head_le_hlen _ _ Hle); exact Hi).
  exists h1, rest1. cbv zeta. rewrite (head_le_mask _ _ Hle).
  split; [unfold get_bucket; rewrite Eh, E; reflexivity|].
  split; [split; [exact Hwf1|split; [rewrite Hl1; exact Hperm|exact Hnext]]|].
  split; [rewrite Eh; exact Hev'|]. split; [exact Hi1|]. split; [exact Hst|].
  split.
  - destruct (chain_ok_head _ _ _ Hok1 _ Hi1) as [Hso _]; [congruence|exact Hso].
  - rewrite Hbn. apply find_agree; auto. rewrite live_lives, Eh in Hperm. exact Hperm.
Qed.

Lemma commit_bucket : forall t h rest i ns h2 nodes next,
  twf t -> t_heads t = h :: rest -> i < hlen h -> b_state (bget h i) = BInit ->
  chain_ok (bset h i (mkB BInit ns) :: rest) -> same_core (bset h i (mkB BInit ns)) h2 ->
  h_id h2 = h_id h -> h_resizing h2 = h_resizing h ->
  census (lives (bset h i (mkB BInit ns) :: rest)) nodes next ->
  let t' := mkT (h2 :: rest) nodes (t_ngrow t) (t_nshrink t) next false in
  twf t' /\ hd_rel 0 (h :: rest) (h2 :: rest) /\ Permutation (live t') (lives (bset h i (mkB BInit ns) :: rest)) /\
  forall e, shape h e -> shape h2 e.
Proof.
  intros t h rest i ns h2 nodes next (_ & _ & Htop & Hids & _) Eh Hi Hst HokB Hcore Hid Hrz Hcen.
  rewrite Eh in Htop, Hids. destruct Htop as (Hnf & Hrz1 & Hall).
  assert (Hb : forall j, j <> i -> bget h2 j = bget h j).
  { intros j Hj. rewrite (same_core_bget _ _ j Hcore). apply bget_bset_neq; auto. }
  assert (Hlv : lives (h2 :: rest) = lives (bset h i (mkB BInit ns) :: rest)) by (apply lives_core; exact Hcore).
  cbv zeta. split; [|split; [|split]].
  - apply twf_intro.
    + eapply chain_ok_core; eauto.
    + split; [|split; [congruence|exact Hall]]. intros j Hf. destruct (N.eq_dec j i) as [->|Hj].
      * rewrite (same_core_bget _ _ i Hcore), bget_bset_eq in Hf by auto. discriminate.
      * rewrite Hb in Hf by auto. exact (Hnf j Hf).
    + eapply ids_ok_same; [|exact Hids]. simpl. rewrite Hid. reflexivity.
    + rewrite Hlv. exact Hcen.
  - apply hd_rel_head; [exact Hid|]. intros j Hf. apply Hb. intro; subst j. congruence.
  - rewrite live_lives. cbn [t_heads]. rewrite Hlv. apply Permutation_refl.
  - intros e [Hm Hl]. split; [destruct Hcore as (_ & -> & _); exact Hm|rewrite (same_core_hlen _ _ Hcore), hlen_bset; exact Hl].
Qed.

(* the resize started at the end of mBucket.get / mBucket.delete: the head wins the CAS on
   resizeInProgress and a new empty head replaces it as r.mHead *)
Lemma start_resize : forall t h rest n g s, twf t -> t_heads t = h :: rest ->
  link (new_head P (t_ngrow t + t_nshrink t + 1) n) h -> g + s = t_ngrow t + t_nshrink t + 1 ->
  let t' := mkT (new_head P (t_ngrow t + t_nshrink t + 1) n :: set_resizing true h :: rest)
                (t_nodes t) g s (t_next t) false in
  twf t' /\ step_struct t t' /\ Permutation (live t') (live t).
Proof.
  intros t h rest n g s (_ & Hok & Htop & Hids & Hcen) Eh Hlink Hgs. rewrite live_lives, Eh in *.
  destruct Htop as (_ & _ & Hall).
  assert (Hcore : same_core h (set_resizing true h)) by (unfold same_core; simpl; auto).
  destruct (push_ok (new_head P (t_ngrow t + t_nshrink t + 1) n) (set_resizing true h) rest) as [Hok' Hperm].
  { eapply chain_ok_core; eauto. }
  { exact Hlink. }
  { apply bget_new_head. }
  { reflexivity. }
  rewrite (lives_core _ _ _ Hcore) in Hperm.
  cbv zeta. split; [|split; [|exact Hperm]].
  - apply twf_intro.
    + exact Hok'.
    + split; [|split; [reflexivity|constructor; [reflexivity|exact Hall]]].
      intro j. rewrite bget_new_head. discriminate.
    + rewrite Hgs. apply ids_ok_cons; [exact Hids|reflexivity].
    + eapply census_perm; [apply Permutation_sym; exact Hperm|exact Hcen].
  - exists 1%nat. split; [auto|]. split; [cbn [t_ngrow t_nshrink]; change (N.of_nat 1) with 1; lia|].
    cbn [t_heads]. rewrite Eh. apply hd_rel_push, hd_rel_head; reflexivity.
Qed.

Lemma t_get_sim : forall t m ns key g, R t m ->
  let '(t', r) := t_get hashf P ns key g t in
  let '(m', r') := mstep hashf m (TGet ns key g) in
  R t' m' /\ r = r' /\ step_struct t t'.
Proof.
  intros t m ns key g HR.
  destruct (ready_bucket t m ns key HR) as (h1 & rest1 & Egb & HR1 & Hev & Hi1 & Hst & Hso & Hfa).
  set (i := N.land (hashf ns key) (h_mask h1)) in *.
  assert (Hstr0 : step_struct t (set_heads (h1 :: rest1) t)) by (apply struct_same; exact Hev).
  unfold t_get. rewrite Egb. cbv beta iota. cbn [t_heads set_heads]. rewrite Hst.
  rewrite (search_find ns key _ Hso). cbn [mstep]. rewrite Hfa.
  destruct (find (tn_eq ns key) (b_nodes (bget h1 i))) as [n|] eqn:Ef.
  { split; [exact HR1|split; [reflexivity|exact Hstr0]]. }
  destruct g.
  { split; [exact HR1|split; [reflexivity|exact Hstr0]]. }
  rewrite insert_search by auto.
  destruct HR1 as (Hwf1 & Hperm1 & Hnext1). pose proof Hwf1 as (Hp & Hok1 & (_ & Hrz1 & _) & _ & Hcen1).
  rewrite live_lives in Hperm1, Hcen1. cbn [t_heads t_panic t_nodes t_next set_heads] in Hp, Hok1, Hrz1, Hcen1, Hperm1, Hnext1.
  cbn [t_heads set_heads t_nodes t_ngrow t_nshrink t_next t_panic]. rewrite Hrz1, Hp. cbn [negb].
  set (n0 := mkTN ns key (hashf ns key) (t_next t)).
  destruct (insert_bucket h1 rest1 i n0 Hok1 Hi1 Hst Ef eq_refl eq_refl) as (HokB & HpermB).
  set (hB := bset h1 i (mkB BInit (sort_insert n0 (b_nodes (bget h1 i))))) in *.
  assert (Hcen : census (lives (hB :: rest1)) (t_nodes t + 1)%Z (t_next t + 1)).
  { eapply census_perm; [apply Permutation_sym; exact HpermB|]. apply (census_cons n0). exact Hcen1. }
  assert (HpermM : Permutation (lives (hB :: rest1)) (km_insert (mkTN ns key (hashf ns key) (km_next m)) (km_nodes m))).
  { rewrite Hnext1. fold n0. unfold km_insert. eapply perm_trans; [exact HpermB|].
    eapply perm_trans; [apply perm_skip; exact Hperm1|]. apply Permutation_sym, sort_insert_perm. }
  match goal with |- context [if tp_ovf P <? ?l then ?a else ?b] => destruct (if tp_ovf P <? l then a else b) as [grow ovf] end.
  rewrite andb_true_r. set (h2 := set_overflow ovf hB).
  destruct (commit_bucket _ h1 rest1 i _ h2 _ _ Hwf1 eq_refl Hi1 Hst HokB (conj eq_refl (conj eq_refl eq_refl))
              eq_refl eq_refl Hcen) as (Hwf2 & Hrel2 & Hlv2 & Hsh2).
  destruct grow.
  - destruct (chain_ok_shape _ _ _ Hok1) as [e Hsh].
    destruct (start_resize _ h2 rest1 (2 * length (h_buckets h1)) (t_ngrow t + 1) (t_nshrink t) Hwf2 eq_refl)
      as (Hwf3 & Hstr3 & Hlv3).
    { exists e. left. split; [apply shape_new_head|exact (Hsh2 e Hsh)].
      rewrite Nat2N.inj_mul. fold (hlen h1). rewrite (proj2 Hsh), pow_succ1. reflexivity. }
    { cbn [t_ngrow t_nshrink set_heads]. lia. }
    split; [|split; [rewrite Hnext1; reflexivity|]].
    + split; [exact Hwf3|]. split; [|simpl; lia]. eapply perm_trans; [exact Hlv3|]. eapply perm_trans; [exact Hlv2|exact HpermM].
    + eapply struct_after; [exact Hev|]. eapply struct_trans0; [| | |exact Hstr3]; [reflexivity|exact Hrel2|reflexivity].
  - split; [|split; [rewrite Hnext1; reflexivity|]].
    + split; [exact Hwf2|]. split; [|simpl; lia]. eapply perm_trans; [exact Hlv2|exact HpermM].
    + eapply struct_after; [exact Hev|]. exists 0%nat. split; [auto|]. split; [reflexivity|exact Hrel2].
Qed.

Lemma remove_bucket : forall h rest i ns key n, chain_ok (h :: rest) -> i < hlen h -> b_state (bget h i) = BInit ->
  find (tn_eq ns key) (b_nodes (bget h i)) = Some n -> N.land (hashf ns key) (h_mask h) = i ->
  let hB := bset h i (mkB BInit (filter (fun x => negb (tn_eq ns key x)) (b_nodes (bget h i)))) in
  chain_ok (hB :: rest) /\ Permutation (lives (h :: rest)) (n :: lives (hB :: rest)) /\
  Permutation (lives (hB :: rest)) (km_remove ns key (lives (h :: rest))).
Proof.
  intros h rest i ns key n Hok Hi Hs Hf Hl hB.
  assert (Hsne : b_state (bget h i) <> BUninit) by congruence.
  destruct (chain_ok_head _ _ _ Hok i Hi Hsne) as [Hso Hpl].
  assert (Hci : content (h :: rest) i = b_nodes (bget h i)) by (apply content_cons_init; auto).
  apply find_some in Hf. destruct Hf as [Hnin Hne].
  assert (Hok' : chain_ok (hB :: rest)).
  { apply chain_ok_bset; auto; [discriminate|]. split; [apply ssorted_filter; auto|].
    intros x Hx. apply filter_In in Hx. apply Hpl. tauto. }
  assert (Hbk : forall x, In x (lives (h :: rest)) -> tn_eq ns key x = true -> N.land (tn_hash x) (h_mask h) = i).
  { intros x Hx He. rewrite (lives_placed _ _ _ Hok Hx). apply tn_eq_spec in He. destruct He as [-> ->]. exact Hl. }
  assert (Hmem : forall x, In x (lives (hB :: rest)) <-> (In x (lives (h :: rest)) /\ tn_eq ns key x = false)).
  { intro x. unfold hB. rewrite in_lives_bset by auto. rewrite filter_In, negb_true_iff. split.
    - intros [[Hx He]|[Hx Hne']].
      + split; auto. eapply in_content_in_lives; eauto. rewrite Hci; auto.
      + split; auto. destruct (tn_eq ns key x) eqn:He; auto. exfalso. apply Hne'. apply Hbk; auto.
    - intros [Hx He]. destruct (N.eq_dec (N.land (tn_hash x) (h_mask h)) i) as [E|E]; [|auto].
      left. split; auto. apply in_lives in Hx; auto. rewrite E, Hci in Hx. exact Hx. }
  assert (Hnl : In n (lives (h :: rest))) by (eapply in_content_in_lives; eauto; rewrite Hci; auto).
  split; [exact Hok'|]. split.
  - apply NoDup_Permutation; [apply lives_nodup; auto| |].
    + constructor; [|apply lives_nodup; auto]. intro Hin. apply Hmem in Hin. destruct Hin. congruence.
    + intro x. cbn [In]. rewrite Hmem. split.
      * intro Hx. destruct (tn_eq ns key x) eqn:He; auto. left.
        eapply (ListLemmas.NoDup_map_inj tkey); [apply lives_keys_nodup; exact Hok| | |]; auto.
        apply tn_eq_spec in He. apply tn_eq_spec in Hne. unfold tkey. destruct He, Hne. congruence.
      * intros [<-|[Hx _]]; auto.
  - apply NoDup_Permutation; [apply lives_nodup; auto|apply NoDup_filter, lives_nodup; auto|].
    intro x. unfold km_remove. rewrite Hmem, filter_In, negb_true_iff. reflexivity.
Qed.

Lemma set_overflow_if : forall (c : bool) o h,
  (if c then set_overflow o h else h) = set_overflow (if c then o else h_overflow h) h.
Proof. intros c o h. destruct c, h; reflexivity. Qed.

Lemma t_delete_sim : forall t m ns key z, R t m ->
  let '(t', r) := t_delete hashf P ns key z t in
  let '(m', r') := mstep hashf m (TDel ns key z) in
  R t' m' /\ r = r' /\ step_struct t t'.
Proof.
  intros t m ns key z HR.
  destruct (ready_bucket t m ns key HR) as (h1 & rest1 & Egb & HR1 & Hev & Hi1 & Hst & Hso & Hfa).
  set (i := N.land (hashf ns key) (h_mask h1)) in *.
  assert (Hnop : R (set_heads (h1 :: rest1) t) m /\ RDel false = RDel false /\ step_struct t (set_heads (h1 :: rest1) t)).
  { split; [exact HR1|split; [reflexivity|apply struct_same; exact Hev]]. }
  unfold t_delete. rewrite Egb. cbv beta iota. cbn [t_heads set_heads]. rewrite Hst.
  pose proof (search_find ns key _ Hso) as Hsf. cbn [mstep]. rewrite Hfa.
  destruct (nth_error (b_nodes (bget h1 i)) (search ns key (b_nodes (bget h1 i)))) as [n|] eqn:En;
    [|rewrite <- Hsf; exact Hnop].
  destruct (tn_eq ns key n) eqn:He; rewrite <- Hsf; cbn [andb]; [|exact Hnop].
  destruct z; [|exact Hnop].
  rewrite (remove_search ns key _ n Hso En He).
  destruct HR1 as (Hwf1 & Hperm1 & Hnext1). pose proof Hwf1 as (Hp & Hok1 & (_ & Hrz1 & _) & _ & Hcen1).
  rewrite live_lives in Hperm1, Hcen1. cbn [t_heads t_panic t_nodes t_next set_heads] in Hp, Hok1, Hrz1, Hcen1, Hperm1, Hnext1.
  cbn [t_heads set_heads t_nodes t_ngrow t_nshrink t_next t_panic]. rewrite Hrz1, Hp, set_overflow_if. cbn [negb]. rewrite andb_true_r.
  destruct (remove_bucket h1 rest1 i ns key n Hok1 Hi1 Hst (eq_sym Hsf) eq_refl) as (HokB & HpermB & HfiltB).
  set (hB := bset h1 i (mkB BInit (filter (fun x => negb (tn_eq ns key x)) (b_nodes (bget h1 i))))) in *.
  assert (Hcen : census (lives (hB :: rest1)) (t_nodes t - 1)%Z (t_next t)).
  { apply (census_tail n). eapply census_perm; [exact HpermB|exact Hcen1]. }
  assert (HpermM : Permutation (lives (hB :: rest1)) (km_remove ns key (km_nodes m))).
  { eapply perm_trans; [exact HfiltB|]. apply Permutation_filter. exact Hperm1. }
  match goal with |- context [set_overflow ?o hB] => set (h2 := set_overflow o hB) end.
  destruct (commit_bucket _ h1 rest1 i _ h2 _ _ Hwf1 eq_refl Hi1 Hst HokB (conj eq_refl (conj eq_refl eq_refl))
              eq_refl eq_refl Hcen) as (Hwf2 & Hrel2 & Hlv2 & Hsh2).
  match goal with |- context [if ?c then _ else _] => destruct c eqn:Ecnd end.
  - apply andb_true_iff in Ecnd. destruct Ecnd as [_ Hgt]. apply N.ltb_lt in Hgt.
    destruct (chain_ok_shape _ _ _ Hok1) as [e1 Hsh].
    assert (Hone : 1 < 2 ^ e1).
    { rewrite <- (proj2 Hsh). destruct Pok as [e0 Hp0]. rewrite Hp0 in Hgt.
      assert (0 < 2 ^ e0) by (apply N.neq_0_lt_0, N.pow_nonzero; lia). lia. }
    destruct (pow_gt_one _ Hone) as [e ->].
    destruct (start_resize _ h2 rest1 (Nat.div2 (length (h_buckets h1))) (t_ngrow t) (t_nshrink t + 1) Hwf2 eq_refl)
      as (Hwf3 & Hstr3 & Hlv3).
    { exists e. right. split; [apply shape_new_head|exact (Hsh2 _ Hsh)].
      rewrite Nat2N.inj_div2. fold (hlen h1). rewrite (proj2 Hsh), pow_succ1, N.div2_div, N.mul_comm. apply N.div_mul. lia. }
    { cbn [t_ngrow t_nshrink set_heads]. lia. }
    split; [|split; [reflexivity|]].
    + split; [exact Hwf3|]. split; [|exact Hnext1]. eapply perm_trans; [exact Hlv3|]. eapply perm_trans; [exact Hlv2|exact HpermM].
    + eapply struct_after; [exact Hev|]. eapply struct_trans0; [| | |exact Hstr3]; [reflexivity|exact Hrel2|reflexivity].
  - split; [|split; [reflexivity|]].
    + split; [exact Hwf2|]. split; [|exact Hnext1]. eapply perm_trans; [exact Hlv2|exact HpermM].
    + eapply struct_after; [exact Hev|]. exists 0%nat. split; [auto|]. split; [reflexivity|exact Hrel2].
Qed.

(* same first-head geometry and same logical contents *)
Definition csame (hs hs' : list head) : Prop :=
  match hs, hs' with
  | h :: _, h' :: _ => h_mask h' = h_mask h /\ hlen h' = hlen h /\
                       forall i, i < hlen h -> content hs' i = content hs i
  | _, _ => False
  end.

Lemma cons_csame : forall a tl tl', chain_ok (a :: tl) -> chain_ok tl' -> csame tl tl' ->
  chain_ok (a :: tl') /\ csame (a :: tl) (a :: tl').
Proof.
  intros a tl tl' Hok Hok' Hcs. destruct tl as [|p q]; [destruct Hcs|]. destruct tl' as [|p' q']; [destruct Hcs|].
  destruct Hcs as (Hm & Hl & Hc). destruct (chain_ok_link _ _ _ _ Hok) as [Hlink Hpred].
  assert (Hlink' : link a p').
  { destruct Hlink as [e [[Ha [Hpm Hpl]]|[Ha [Hpm Hpl]]]]; exists e; [left|right]; split; auto; split; congruence. }
  split.
  - split; [eapply chain_ok_head; eauto|]. split; [split; auto|exact Hok'].
  - split; [reflexivity|split; [reflexivity|]]. intros i Hi. apply content_congr; auto.
Qed.

Lemma splice : forall pre suf suf', chain_ok (pre ++ suf) -> chain_ok suf' -> csame suf suf' ->
  chain_ok (pre ++ suf') /\ csame (pre ++ suf) (pre ++ suf').
Proof.
  induction pre as [|a pre IH]; intros suf suf' Hok Hok' Hcs; [simpl; auto|].
  simpl in *. assert (Hokt : chain_ok (pre ++ suf)).
  { destruct (pre ++ suf) as [|p q] eqn:E; [|eapply chain_ok_tail; eauto].
    destruct pre; simpl in E; [subst suf; destruct Hcs|discriminate]. }
  destruct (IH suf suf' Hokt Hok' Hcs) as [Hok1 Hcs1]. apply cons_csame; auto.
Qed.

Lemma chain_ok_skipn : forall d hs, chain_ok hs -> skipn d hs <> [] -> chain_ok (skipn d hs).
Proof.
  induction d; intros hs Hok Hne; [exact Hok|]. destruct hs as [|h rest]; [exact Hok|]. cbn [skipn] in *.
  destruct rest as [|p q]; [destruct d; simpl in Hne; congruence|].
  apply IHd; auto. eapply chain_ok_tail; eauto.
Qed.

Lemma csame_lives : forall hs hs', csame hs hs' -> lives hs' = lives hs.
Proof. intros [|h r] [|h' r'] H; try contradiction. destruct H as (Hm & Hl & Hc). apply lives_ext; auto. Qed.

Lemma twf_splice : forall t pre h r h' r', twf t -> t_heads t = pre ++ h :: r ->
  chain_ok (h' :: r') -> csame (h :: r) (h' :: r') -> h_resizing h' = h_resizing h ->
  (forall j, b_state (bget h' j) = BFrozen -> b_state (bget h j) = BFrozen) ->
  (Forall (fun p => h_resizing p = true) r -> Forall (fun p => h_resizing p = true) r') ->
  (forall d id, nth_error (map h_id (h' :: r')) d = Some id -> nth_error (map h_id (h :: r)) d = Some id) ->
  twf (set_heads (pre ++ h' :: r') t) /\ live (set_heads (pre ++ h' :: r') t) = live t.
Proof.
  intros t pre h r h' r' (Hp & Hok & Htop & Hids & Hcen) Eh Hok' Hcs Hrz Hfr Hall Hid.
  assert (El : live (set_heads (pre ++ h' :: r') t) = live t).
  { rewrite !live_lives, Eh. cbn [t_heads set_heads]. rewrite Eh in Hok.
    apply csame_lives, (splice pre _ _ Hok Hok' Hcs). }
  rewrite Eh in Hok, Htop, Hids. split; [|exact El]. unfold twf. rewrite El. cbn [t_heads t_panic t_nodes t_ngrow t_nshrink t_next set_heads].
  split; [exact Hp|]. split; [apply (splice pre _ _ Hok Hok' Hcs)|]. split; [|split; [|exact Hcen]].
  - destruct pre as [|a pre']; cbn [app top_ok] in Htop |- *; destruct Htop as (Hnf & Hrz1 & Hall1).
    + split; [|split; [congruence|auto]]. intros j Hj. exact (Hnf j (Hfr j Hj)).
    + split; [exact Hnf|split; [exact Hrz1|]]. apply Forall_app in Hall1. destruct Hall1 as [Ha Hb].
      apply Forall_app. split; [exact Ha|]. inversion Hb; subst. constructor; [congruence|auto].
  - intros d id Hn. apply (Hids d id). rewrite map_app in Hn |- *.
    destruct (Nat.lt_ge_cases d (length (map h_id pre))) as [Hd|Hd].
    + rewrite nth_error_app1 in Hn |- * by exact Hd. exact Hn.
    + rewrite nth_error_app2 in Hn |- * by exact Hd. apply Hid. exact Hn.
Qed.

Lemma all_init_spec : forall h i, all_init h = true -> i < hlen h -> b_state (bget h i) <> BUninit.
Proof.
  intros h i Ha Hi. unfold all_init in Ha. rewrite forallb_forall in Ha.
  assert (Hin : In (bget h i) (h_buckets h)) by (unfold bget, hlen in *; apply nth_In; lia).
  apply Ha in Hin. intro E. rewrite E in Hin. discriminate.
Qed.

Definition tops (hs : list head) : Prop :=
  match hs with h :: _ => forall i, b_state (bget h i) <> BFrozen | [] => False end.

Lemma bg_noop : forall t, twf t ->
  twf t /\ Permutation (live t) (live t) /\ t_next t = t_next t /\ (exists e, RBg false = RBg e) /\ step_struct t t.
Proof.
  intros t Hwf. split; [exact Hwf|split; [apply Permutation_refl|split; [reflexivity|split; [eexists; reflexivity|apply struct_refl]]]].
Qed.

Lemma t_init_bg_ok : forall t d i, twf t ->
  let '(t', r) := t_init_bg d i t in
  twf t' /\ Permutation (live t') (live t) /\ t_next t' = t_next t /\ (exists e, r = RBg e) /\ step_struct t t'.
Proof.
  intros t d i Hwf. unfold t_init_bg.
  destruct (skipn (N.to_nat d) (t_heads t)) as [|h r] eqn:Es; [exact (bg_noop t Hwf)|].
  destruct (i <? hlen h) eqn:Hi; [|exact (bg_noop t Hwf)]. apply N.ltb_lt in Hi.
  pose proof Hwf as (_ & Hok & _).
  assert (Hoks : chain_ok (h :: r)) by (rewrite <- Es; apply chain_ok_skipn; auto; congruence).
  assert (Hfuel : (length (h :: r) <= length (t_heads t))%nat).
  { rewrite <- Es. rewrite skipn_length. lia. }
  destruct (init_ok hashf _ h r i Hfuel Hoks Hi) as (h' & r' & E & Hok' & Hle & Hev & Hc & Hs & Hfr).
  rewrite E. cbn [or_tpanic].
  set (pre := firstn (N.to_nat d) (t_heads t)).
  assert (Esplit : t_heads t = pre ++ h :: r) by (rewrite <- Es; symmetry; apply firstn_skipn).
  assert (Hev' : evolves (h :: r) (h' :: r')) by (constructor; auto).
  destruct (twf_splice t pre h r h' r' Hwf Esplit Hok') as [Hwf' El].
  { split; [apply head_le_mask; auto|split; [apply head_le_hlen; auto|exact Hc]]. }
  { destruct Hle as (_ & _ & _ & Hr & _). exact Hr. }
  { exact Hfr. }
  { apply evolves_resizing. exact Hev. }
  { rewrite (evolves_map_id _ _ Hev'). auto. }
  split; [exact Hwf'|split; [rewrite El; apply Permutation_refl|split; [reflexivity|split; [eauto|]]]].
  apply struct_same. rewrite Esplit. apply Forall2_app; [apply evolves_refl|exact Hev'].
Qed.

Lemma hd_rel_finish : forall pre h r, hd_rel 0 (pre ++ h :: r) (pre ++ [set_pred false h]).
Proof.
  induction pre as [|a pre IH]; intros h r d x x' Hn Hn'; simpl in *.
  - destruct d as [|d]; simpl in *; [|destruct d; discriminate].
    inversion Hn; inversion Hn'; subst. split; auto.
  - destruct d as [|d]; simpl in *.
    + inversion Hn; inversion Hn'; subst. split; auto.
    + eapply IH; eauto.
Qed.

Lemma t_finish_bg_ok : forall t d, twf t ->
  let '(t', r) := t_finish_bg d t in
  twf t' /\ Permutation (live t') (live t) /\ t_next t' = t_next t /\ (exists e, r = RBg e) /\ step_struct t t'.
Proof.
  intros t d Hwf. unfold t_finish_bg.
  destruct (skipn (N.to_nat d) (t_heads t)) as [|h r] eqn:Es; [exact (bg_noop t Hwf)|].
  destruct (h_pred h && all_init h) eqn:Hc; [|exact (bg_noop t Hwf)].
  apply andb_true_iff in Hc. destruct Hc as [Hpred Hall].
  pose proof Hwf as (_ & Hok & _).
  assert (Hoks : chain_ok (h :: r)) by (rewrite <- Es; apply chain_ok_skipn; auto; congruence).
  set (pre := firstn (N.to_nat d) (t_heads t)).
  assert (Esplit : t_heads t = pre ++ h :: r) by (rewrite <- Es; symmetry; apply firstn_skipn).
  set (h' := set_pred false h).
  assert (Hok' : chain_ok [h']).
  { split; [|split; [|exact I]].
    - intros i Hi Hs. destruct (chain_ok_head _ _ _ Hoks i Hi Hs) as [Hso Hpl]. split; auto.
    - split; [reflexivity|split; [|intros i Hi; apply (all_init_spec h i Hall Hi)]].
      destruct (chain_ok_shape _ _ _ Hoks) as [e He]. exists e. exact He. }
  destruct (twf_splice t pre h r h' [] Hwf Esplit Hok') as [Hwf' El].
  { split; [reflexivity|split; [reflexivity|]]. intros i Hi.
    rewrite !content_cons_init; auto; apply (all_init_spec h i Hall Hi). }
  { reflexivity. }
  { auto. }
  { constructor. }
  { intros [|[|k]] id Hn; [exact Hn|discriminate|discriminate]. }
  split; [exact Hwf'|split; [rewrite El; apply Permutation_refl|split; [reflexivity|split; [eauto|]]]].
  exists 0%nat. split; [auto|]. split; [simpl; lia|]. simpl t_heads. rewrite Esplit. apply hd_rel_finish.
Qed.

Lemma enum_fold_ok : forall pick idx h rest out0, chain_ok (h :: rest) -> top_ok (h :: rest) ->
  (forall x, In x idx -> N.of_nat x < hlen h) ->
  exists h' rest', fold_left (enum_step pick) idx (h :: rest, false, out0) =
      (h' :: rest', false, out0 ++ flat_map (fun x => pick (content (h :: rest) (N.of_nat x))) idx) /\
    chain_ok (h' :: rest') /\ top_ok (h' :: rest') /\ evolves (h :: rest) (h' :: rest') /\
    hlen h' = hlen h /\ (forall i, i < hlen h -> content (h' :: rest') i = content (h :: rest) i).
Proof.
  induction idx as [|x idx IH]; intros h rest out0 Hok Htop Hr.
  - exists h, rest. simpl. rewrite app_nil_r.
    split; [reflexivity|split; [exact Hok|split; [exact Htop|split; [apply evolves_refl|split; [reflexivity|auto]]]]].
  - assert (Hx : N.of_nat x < hlen h) by (apply Hr; left; auto).
    destruct (init_top h rest _ Hok Htop Hx) as (h1 & rest1 & E & Hok1 & Htop1 & Hle & Hev & Hc & Hlv & Hst & Hbn).
    assert (Hl1 : hlen h1 = hlen h) by (apply head_le_hlen; auto).
    assert (Hr1 : forall y, In y idx -> N.of_nat y < hlen h1) by (intros; rewrite Hl1; apply Hr; right; auto).
    cbn [fold_left]. unfold enum_step at 2. rewrite E. cbn [orb]. rewrite Hbn.
    destruct (IH h1 rest1 (out0 ++ pick (content (h :: rest) (N.of_nat x))) Hok1 Htop1 Hr1)
      as (h' & rest' & E' & Hok' & Htop' & Hev' & Hl' & Hc').
    exists h', rest'. split.
    + rewrite E'. f_equal. simpl. rewrite <- app_assoc. f_equal. f_equal.
      apply flat_map_ext_in. intros y Hy. f_equal. apply Hc. apply Hr. right; auto.
    + split; [exact Hok'|]. split; [exact Htop'|]. split.
      * eapply evolves_trans; [|exact Hev']. constructor; auto.
      * split; [congruence|]. intros i Hi. rewrite Hc' by (rewrite Hl1; auto). apply Hc; auto.
Qed.

Lemma pick_ns_lives : forall ns h rest, chain_ok (h :: rest) ->
  flat_map (fun i => pick_ns ns (content (h :: rest) i)) (indices h) = filter (fun x => tn_ns x =? ns) (lives (h :: rest)).
Proof.
  intros ns h rest Hok. unfold lives. rewrite filter_flat_map. apply flat_map_ext_in.
  intros i Hi. apply in_indices in Hi. apply pick_ns_filter. apply (content_ok hashf h rest Hok i Hi).
Qed.

(* [pick] bucket by bucket is [f] on the whole table *)
Lemma enumerate_ok : forall pick f t, twf t ->
  (forall h rest, chain_ok (h :: rest) -> flat_map (fun i => pick (content (h :: rest) i)) (indices h) = f (lives (h :: rest))) ->
  let '(t', out) := enumerate pick t in
  twf t' /\ live t' = live t /\ t_next t' = t_next t /\ out = f (live t) /\ step_struct t t'.
Proof.
  intros pick f t Hwf Hpf. destruct (twf_heads t Hwf) as (h & rest & Eh).
  pose proof Hwf as (Hp & Hok & Htop & _). rewrite Eh in Hok, Htop.
  unfold enumerate. rewrite Eh.
  assert (Hr : forall x, In x (seq 0 (length (h_buckets h))) -> N.of_nat x < hlen h).
  { intros x Hx. apply in_seq in Hx. unfold hlen. lia. }
  destruct (enum_fold_ok pick _ h rest [] Hok Htop Hr) as (h' & rest' & E & Hok' & Htop' & Hev' & Hl' & Hc').
  rewrite E. cbn [or_tpanic app].
  assert (Hlv : lives (h' :: rest') = lives (h :: rest)) by (apply lives_ext; auto).
  destruct (twf_set_heads t h rest (h' :: rest') Hwf Eh Hok' Htop' Hev' Hlv) as [Hwf' El].
  split; [exact Hwf'|]. split; [exact El|]. split; [reflexivity|].
  split; [rewrite live_lives, Eh, <- (Hpf h rest Hok); unfold indices; rewrite flat_map_map_r; reflexivity|].
  apply struct_same. rewrite Eh. exact Hev'.
Qed.

Lemma res_match_refl : forall r, res_match r r.
Proof. destruct r; simpl; auto. Qed.

Lemma res_match_ok : forall r r', res_match r r' -> r' <> RTPanic -> r' <> RSpin -> r <> RTPanic /\ r <> RSpin.
Proof. intros r r' H Hp Hs. destruct r; cbn in H; split; congruence. Qed.

Lemma mstep_res_ok : forall m o, snd (mstep hashf m o) <> RTPanic /\ snd (mstep hashf m o) <> RSpin.
Proof.
  intros m o. destruct o as [ns key g|ns key z| |ns|d i|d]; cbn [mstep].
  - destruct (km_find ns key (km_nodes m)); [|destruct g]; split; discriminate.
  - destruct (km_find ns key (km_nodes m)); [destruct z|]; split; discriminate.
  - split; discriminate.
  - split; discriminate.
  - split; discriminate.
  - split; discriminate.
Qed.

Lemma raw_sim : forall t m o, R t m ->
  let '(t', r) := tstep_raw hashf P t o in
  let '(m', r') := mstep hashf m o in
  R t' m' /\ res_match r r' /\ step_struct t t'.
Proof.
  intros t m o HR. pose proof HR as (Hwf & Hperm & Hnext).
  destruct o as [ns key g|ns key z| |ns|d i|d]; cbn [tstep_raw].
  - pose proof (t_get_sim t m ns key g HR) as H.
    destruct (t_get hashf P ns key g t) as [t' r]. destruct (mstep hashf m (TGet ns key g)) as [m' r'].
    destruct H as (HR' & -> & Hstr). split; [exact HR'|split; [apply res_match_refl|exact Hstr]].
  - pose proof (t_delete_sim t m ns key z HR) as H.
    destruct (t_delete hashf P ns key z t) as [t' r]. destruct (mstep hashf m (TDel ns key z)) as [m' r'].
    destruct H as (HR' & -> & Hstr). split; [exact HR'|split; [apply res_match_refl|exact Hstr]].
  - pose proof (enumerate_ok (fun l => l) (fun l => l) t Hwf (fun _ _ _ => eq_refl)) as H.
    destruct (enumerate (fun l => l) t) as [t' out]. destruct H as (Hwf' & El & En & -> & Hstr). cbn [mstep].
    split; [split; [exact Hwf'|split; [rewrite El; exact Hperm|rewrite En; exact Hnext]]|split; [|exact Hstr]].
    apply Permutation_map. exact Hperm.
  - pose proof (enumerate_ok (pick_ns ns) _ t Hwf (pick_ns_lives ns)) as H.
    destruct (enumerate (pick_ns ns) t) as [t' out]. destruct H as (Hwf' & El & En & -> & Hstr). cbn [mstep].
    split; [split; [exact Hwf'|split; [rewrite El; exact Hperm|rewrite En; exact Hnext]]|split; [|exact Hstr]].
    apply Permutation_map, Permutation_filter. exact Hperm.
  - pose proof (t_init_bg_ok t d i Hwf) as H. destruct (t_init_bg d i t) as [t' r].
    destruct H as (Hwf' & Hpl & En & [e ->] & Hstr). cbn [mstep].
    split; [split; [exact Hwf'|split; [eapply perm_trans; eauto|rewrite En; exact Hnext]]|split; [exact I|exact Hstr]].
  - pose proof (t_finish_bg_ok t d Hwf) as H. destruct (t_finish_bg d t) as [t' r].
    destruct H as (Hwf' & Hpl & En & [e ->] & Hstr). cbn [mstep].
    split; [split; [exact Hwf'|split; [eapply perm_trans; eauto|rewrite En; exact Hnext]]|split; [exact I|exact Hstr]].
Qed.

Theorem step_sim : forall t m o, R t m ->
  R (fst (tstep hashf P t o)) (fst (mstep hashf m o)) /\
  res_match (snd (tstep hashf P t o)) (snd (mstep hashf m o)) /\ snd (tstep hashf P t o) <> RTPanic /\
  snd (tstep hashf P t o) <> RSpin /\ step_struct t (fst (tstep hashf P t o)).
Proof.
  intros t m o HR. pose proof (raw_sim t m o HR) as H. pose proof (mstep_res_ok m o) as [Hnp Hns]. unfold tstep.
  destruct (tstep_raw hashf P t o) as [t' r]. destruct (mstep hashf m o) as [m' r']. cbn [fst snd] in *.
  destruct H as (HR' & Hm & Hstr). pose proof HR' as ((Hp' & _) & _). rewrite Hp'. cbn [fst snd].
  destruct (res_match_ok r r' Hm Hnp Hns) as [Hnp' Hns'].
  split; [exact HR'|split; [exact Hm|split; [exact Hnp'|split; [exact Hns'|exact Hstr]]]].
Qed.

Lemma bget_head0 : forall i, i < hlen (head0 P) -> bget (head0 P) i = mkB BInit [].
Proof.
  intros i Hi. unfold bget, head0, hlen in *. simpl in *. rewrite repeat_length in Hi.
  apply nth_repeat'. lia.
Qed.

Lemma R_init : R (tinit P) minit.
Proof.
  destruct Pok as [e0 He0].
  assert (Hl : hlen (head0 P) = 2 ^ e0).
  { unfold hlen, head0. simpl. rewrite repeat_length, N2Nat.id. exact He0. }
  assert (Hm : h_mask (head0 P) = N.ones e0) by (unfold head0; simpl; rewrite He0; apply ones_pred).
  assert (Hok : chain_ok [head0 P]).
  { split; [|split; [|exact I]].
    - intros i Hi _. rewrite bget_head0 by auto. split; [constructor|intros x []].
    - split; [reflexivity|split; [exists e0; split; auto|]]. intros i Hi. rewrite bget_head0 by auto. discriminate. }
  assert (Hlv : lives [head0 P] = []).
  { unfold lives. apply flat_map_nil. intros i Hi. apply in_indices in Hi.
    rewrite content_cons_init by (rewrite bget_head0 by auto; discriminate). rewrite bget_head0 by auto. reflexivity. }
  split; [|split; [rewrite live_lives; simpl t_heads; rewrite Hlv; constructor|reflexivity]].
  unfold tinit. apply twf_intro; auto.
  - split; [|split; [reflexivity|constructor]]. intros i Hf.
    destruct (N.lt_ge_cases i (hlen (head0 P))) as [Hi|Hi].
    + rewrite bget_head0 in Hf by auto. discriminate.
    + rewrite bget_out in Hf by auto. discriminate.
  - intros d id Hn. destruct d as [|d]; simpl in Hn; [inversion Hn; reflexivity|destruct d; discriminate].
  - rewrite Hlv. split; [reflexivity|split; [constructor|intros x []]].
Qed.

Definition res_ok (r : tres) : Prop := r <> RTPanic /\ r <> RSpin.

Theorem run_sim : forall ops t m, R t m ->
  R (fst (trun hashf P t ops)) (fst (mrun hashf m ops)) /\
  Forall2 res_match (snd (trun hashf P t ops)) (snd (mrun hashf m ops)) /\
  Forall res_ok (snd (trun hashf P t ops)).
Proof.
  induction ops as [|o ops IH]; intros t m HR; simpl.
  - split; [exact HR|split; constructor].
  - destruct (step_sim t m o HR) as (HR1 & Hres & Hnp & Hns & _).
    destruct (tstep hashf P t o) as [t1 r]. destruct (mstep hashf m o) as [m1 r']. cbn [fst snd] in *.
    destruct (IH t1 m1 HR1) as (HR2 & Hrs & Hok).
    destruct (trun hashf P t1 ops) as [t2 rs]. destruct (mrun hashf m1 ops) as [m2 rs']. cbn [fst snd] in *.
    split; [exact HR2|split; constructor; auto]. split; auto.
Qed.

Definition treach (t : table) : Prop := exists ops, t = fst (trun hashf P (tinit P) ops).

Lemma treach_R : forall t, treach t -> exists m, R t m.
Proof.
  intros t [ops ->]. exists (fst (mrun hashf minit ops)). apply (run_sim ops _ _ R_init).
Qed.

(* the table refines the finite map *)
Theorem table_refines_map : forall ops,
  Forall2 res_match (snd (trun hashf P (tinit P) ops)) (snd (mrun hashf minit ops)) /\
  Forall res_ok (snd (trun hashf P (tinit P) ops)) /\
  Permutation (live (fst (trun hashf P (tinit P) ops))) (km_nodes (fst (mrun hashf minit ops))) /\
  t_nodes (fst (trun hashf P (tinit P) ops)) = Z.of_nat (length (km_nodes (fst (mrun hashf minit ops)))) /\
  t_panic (fst (trun hashf P (tinit P) ops)) = false.
Proof.
  intro ops. destruct (run_sim ops _ _ R_init) as (((Hp & _ & _ & _ & Hn & _) & Hperm & _) & Hrs & Hok).
  split; [exact Hrs|split; [exact Hok|split; [exact Hperm|split; [|exact Hp]]]].
  rewrite Hn. rewrite (Permutation_length Hperm). reflexivity.
Qed.

(* no node lost or duplicated; each node in exactly one logical bucket *)
Theorem table_nodes_unique : forall t, treach t ->
  NoDup (map tn_id (live t)) /\ NoDup (map tkey (live t)) /\
  (forall x, In x (live t) -> tn_id x < t_next t) /\
  forall h rest, t_heads t = h :: rest ->
    forall i j x, i < hlen h -> j < hlen h -> In x (content (t_heads t) i) -> In x (content (t_heads t) j) -> i = j.
Proof.
  intros t Hr. destruct (treach_R t Hr) as [m ((Hp & Hok & Htop & Hids & Hn & Hnd & Hb) & _)].
  split; [exact Hnd|]. split.
  - rewrite live_lives. destruct (t_heads t) as [|h rest]; [constructor|]. apply lives_keys_nodup; auto.
  - split; [exact Hb|]. intros h rest Eh i j x Hi Hj Hxi Hxj. rewrite Eh in *.
    destruct (content_placed h rest i x Hok Hi Hxi) as [<- _]. destruct (content_placed h rest j x Hok Hj Hxj) as [<- _].
    reflexivity.
Qed.

(* placement under the current mask *)
Theorem table_placement : forall t, treach t -> forall h rest, t_heads t = h :: rest ->
  forall i, i < hlen h -> b_state (bget h i) <> BUninit ->
    ssorted (b_nodes (bget h i)) /\
    (forall x, In x (b_nodes (bget h i)) ->
       N.land (tn_hash x) (h_mask h) = i /\ tn_hash x = hashf (tn_ns x) (tn_key x) /\ In x (live t)) /\
    (forall x, In x (live t) -> N.land (tn_hash x) (h_mask h) = i -> In x (b_nodes (bget h i))).
Proof.
  intros t Hr h rest Eh i Hi Hs. destruct (treach_R t Hr) as [m ((Hp & Hok & _) & _)]. rewrite Eh in Hok.
  destruct (chain_ok_head _ _ _ Hok i Hi Hs) as [Hso Hpl]. split; [exact Hso|]. split.
  - intros x Hx. destruct (Hpl x Hx) as [Hl Hh]. split; [exact Hl|split; [exact Hh|]].
    rewrite live_lives, Eh. eapply in_content_in_lives; eauto. rewrite content_cons_init; auto.
  - intros x Hx Hl. rewrite live_lives, Eh in Hx. apply in_lives in Hx; auto.
    rewrite Hl, content_cons_init in Hx; auto.
Qed.

(* every step leaves frozen buckets as they are and adds at most one head ([step_struct]); consecutive heads are linked *)
Theorem table_step_struct : forall t o, treach t -> step_struct t (fst (tstep hashf P t o)).
Proof. intros t o Hr. destruct (treach_R t Hr) as [m HR]. apply (step_sim t m o HR). Qed.

Theorem table_resize_flags : forall t, treach t ->
  top_ok (t_heads t) /\ ids_ok (t_heads t) (t_ngrow t + t_nshrink t) /\
  (forall h rest, t_heads t = h :: rest -> forall p r, rest = p :: r -> h_pred h = true /\ link h p).
Proof.
  intros t Hr. destruct (treach_R t Hr) as [m ((Hp & Hok & Htop & Hids & _) & _)].
  split; [exact Htop|split; [exact Hids|]]. intros h rest Eh p r ->. rewrite Eh in Hok.
  destruct (chain_ok_link _ _ _ _ Hok). auto.
Qed.

(* enumerateNodesWithCB / enumerateNodesByNS return exactly the live nodes (of the namespace), each once *)
Theorem table_enum_exact : forall t, treach t ->
  snd (tstep hashf P t TEnum) = REnum (map tn_id (live t)) /\ NoDup (map tn_id (live t)) /\
  forall ns, snd (tstep hashf P t (TEnumNS ns)) = REnum (map tn_id (filter (fun x => tn_ns x =? ns) (live t))).
Proof.
  intros t Hr. destruct (treach_R t Hr) as [m (Hwf & _)].
  pose proof Hwf as (_ & _ & _ & _ & _ & Hnd & _).
  split; [|split; [exact Hnd|]].
  - unfold tstep. cbn [tstep_raw]. pose proof (enumerate_ok (fun l => l) (fun l => l) t Hwf (fun _ _ _ => eq_refl)) as H.
    destruct (enumerate (fun l => l) t) as [t' out]. destruct H as ((Hp' & _) & _ & _ & -> & _).
    rewrite Hp'. reflexivity.
  - intro ns. unfold tstep. cbn [tstep_raw]. pose proof (enumerate_ok (pick_ns ns) _ t Hwf (pick_ns_lives ns)) as H.
    destruct (enumerate (pick_ns ns) t) as [t' out]. destruct H as ((Hp' & _) & _ & _ & -> & _).
    rewrite Hp'. reflexivity.
Qed.

End Proofs.
