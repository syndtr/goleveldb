(* Conc/ReadCutProofs.v — proofs about the read-cut LTS of Conc/ReadCut.v (property C05).
   [inv] (with [rinv] per reader) says that the buffers and the version a reader holds, or can still take,
   answer every key as the history does at its sequence number; it is kept by every action, given that a
   version rewrite passes [rewrite_ok].  From it: read_cut (every answered read returned the state of the
   database at the reader's sequence number).  [inv2] adds the bookkeeping of published groups, from which
   writes_linearize (publications are the linearisation points), reads_monotone and read_instant follow.
   no_violation: the executable test [violation] never fires.  After the section: order_matters (each of the
   four reversed orders of [variant] reaches a violation) and three accepted traces as witnesses. *)
From GL Require Import Base.BytesProofs Codec.BytesCmp Lsm.LsmProofs Conc.ReadCut Gen.Inst.
From GL Require Lsm.HistoryProofs.
From Coq Require Import Lia PeanoNat.

Ltac sim :=
  cbn [d_seq d_hp d_cur d_frz d_fl d_ver d_snaps d_holder d_wn d_tn d_rd d_hist d_pend d_glog d_rlog d_dropped
       with_writer with_publish with_mems with_ver with_txn with_reader
       r_ph r_reg r_s r_m r_f r_v r_h0 set_phase set_mems set_version set_reg idle_reader fst snd] in *.

Section Proofs.
  Variable c : comparer.
  Hypothesis ok : comparer_ok c.
  Variable p : kparams.

  Notation newest := (newest c).
  Notation vis := (vis c).
  Notation res := (res p).
  Notation spec := (spec c p).
  Notation cutget := (cutget c).
  Notation step := (step c p).
  Notation run := (run c p).

  Lemma vis_above k s e : s < e_seq e -> vis k s e = false.
  Proof.
    intros H. unfold Lsm.vis. destruct (cmp c (e_uk e) k); [|reflexivity|reflexivity].
    apply N.leb_gt. exact H.
  Qed.

  Lemma vis_le k s e : vis k s e = true -> e_seq e <= s.
  Proof.
    unfold Lsm.vis. destruct (cmp c (e_uk e) k); [|discriminate|discriminate]. apply N.leb_le.
  Qed.

  Lemma invisible_above k s l : (forall x, In x l -> s < e_seq x) -> forall x, In x l -> vis k s x = false.
  Proof. intros H x Hx. apply vis_above. apply H. exact Hx. Qed.

  Lemma newest_app_invis k s l x acc : (forall e, In e x -> vis k s e = false) ->
    newest k s (l ++ x) acc = newest k s l acc.
  Proof. intros H. rewrite (newest_app c). apply (newest_none c). exact H. Qed.

  Lemma newest_none_iff k s l : newest k s l None = None <-> (forall x, In x l -> vis k s x = false).
  Proof.
    split.
    - induction l as [|e l IH]; intros H x Hx; [destruct Hx|]. cbn [Lsm.newest] in H.
      destruct (vis k s e) eqn:V.
      + cbn [newer] in H. exfalso.
        assert (forall l a, newest k s l (Some a) <> None) as N.
        { clear. induction l as [|y l IH]; intros a; cbn [Lsm.newest]; [discriminate|].
          destruct (vis k s y); [|apply IH]. cbn [newer]. destruct (e_seq a <? e_seq y); apply IH. }
        exact (N _ _ H).
      + destruct Hx as [<-|Hx]; [exact V|]. apply IH; assumption.
    - intros H. apply (newest_none c). exact H.
  Qed.

  (* a visible entry newer than everything before it is the answer *)
  Lemma newest_snoc_top k s l e : vis k s e = true -> (forall x, In x l -> e_seq x < e_seq e) ->
    newest k s (l ++ [e]) None = Some e.
  Proof.
    intros V H. rewrite (newest_app c). cbn [Lsm.newest]. rewrite V.
    destruct (newest k s l None) as [a|] eqn:A; cbn [newer]; [|reflexivity].
    apply (newest_in c) in A as [A|[A _]]; [discriminate|].
    replace (e_seq a <? e_seq e) with true; [reflexivity|]. symmetry. apply N.ltb_lt. apply H. exact A.
  Qed.

  Lemma newest_some_vis k s l a : newest k s l None = Some a -> In a l /\ vis k s a = true.
  Proof. intros H. apply (newest_in c) in H as [H|H]; [discriminate|exact H]. Qed.

  Lemma newest_exists k s l : newest k s l None <> None -> exists x, In x l /\ vis k s x = true.
  Proof.
    intros H. destruct (newest k s l None) as [a|] eqn:A; [|congruence].
    exists a. apply newest_some_vis. exact A.
  Qed.

  Lemma spec_app_above h tl k s : (forall x, In x tl -> s < e_seq x) -> spec (h ++ tl) k s = spec h k s.
  Proof.
    intros H. unfold ReadCut.spec. rewrite newest_app_invis; [reflexivity|]. apply invisible_above. exact H.
  Qed.

  Lemma cutget_ver M F V V' k s : res (newest k s V None) = res (newest k s V' None) ->
    res (cutget M F V k s) = res (cutget M F V' k s).
  Proof.
    intros H. unfold ReadCut.cutget. destruct (newest k s M None); [reflexivity|].
    destruct (newest k s F None); [reflexivity|]. exact H.
  Qed.

  Lemma cutget_M_invis M X F V k s : (forall e, In e X -> vis k s e = false) ->
    cutget (M ++ X) F V k s = cutget M F V k s.
  Proof. intros H. unfold ReadCut.cutget. rewrite newest_app_invis by exact H. reflexivity. Qed.

  Lemma cutget_F_invis M X F V k s : (forall e, In e X -> vis k s e = false) ->
    cutget M (F ++ X) V k s = cutget M F V k s.
  Proof. intros H. unfold ReadCut.cutget. rewrite (newest_app_invis k s F) by exact H. reflexivity. Qed.

  Lemma cutget_V_invis M X F V k s : (forall e, In e X -> vis k s e = false) ->
    cutget M F (V ++ X) k s = cutget M F V k s.
  Proof. intros H. unfold ReadCut.cutget. rewrite (newest_app_invis k s V) by exact H. reflexivity. Qed.

  Lemma cutget_rotate M V k s : cutget [] M V k s = cutget M [] V k s.
  Proof. unfold ReadCut.cutget. cbn [Lsm.newest]. destruct (newest k s M None); reflexivity. Qed.

  Lemma cutget_miss M F V k s : newest k s M None = None -> newest k s F None = None ->
    cutget M F V k s = newest k s V None.
  Proof. intros A B. unfold ReadCut.cutget. rewrite A, B. reflexivity. Qed.

  Lemma cutget_hitM M F V V' k s e : newest k s M None = Some e -> cutget M F V k s = cutget M F V' k s.
  Proof. intros A. unfold ReadCut.cutget. rewrite A. reflexivity. Qed.

  Lemma cutget_hitF M F V V' k s e : newest k s F None = Some e -> cutget M F V k s = cutget M F V' k s.
  Proof. intros A. unfold ReadCut.cutget. destruct (newest k s M None); [reflexivity|]. rewrite A. reflexivity. Qed.

  (* adding to the version a block X none of whose entries is visible unless a buffer (M or F) already holds
     a visible entry of the key *)
  Lemma cutget_install M F V X k s :
    (newest k s M None = None -> newest k s F None = None -> forall e, In e X -> vis k s e = false) ->
    cutget M F (V ++ X) k s = cutget M F V k s.
  Proof.
    intros H. unfold ReadCut.cutget. destruct (newest k s M None) eqn:A; [reflexivity|].
    destruct (newest k s F None) eqn:B; [reflexivity|]. apply newest_app_invis. apply H; reflexivity.
  Qed.

  Lemma entry_eqb_eq a b : entry_eqb a b = true -> a = b.
  Proof.
    unfold entry_eqb. intros H. apply andb_prop in H as [H H4]. apply andb_prop in H as [H H3].
    apply andb_prop in H as [H1 H2]. apply beq_eq in H1. apply beq_eq in H4.
    apply N.eqb_eq in H2. apply N.eqb_eq in H3. destruct a, b; cbn in *; subst; reflexivity.
  Qed.

  Lemma sub_entries_in a b : sub_entries a b = true -> forall e, In e a -> In e b.
  Proof.
    unfold sub_entries, mem_entry. intros H e He. rewrite forallb_forall in H. specialize (H e He).
    apply existsb_exists in H as [y [Hy E]]. apply entry_eqb_eq in E. subst. exact Hy.
  Qed.

  Lemma opt_bytes_eqb_eq a b : opt_bytes_eqb a b = true -> a = b.
  Proof. destruct a, b; cbn; try discriminate; try reflexivity. intros H. apply beq_eq in H. subst. reflexivity. Qed.

  Lemma is_nil_true {A} (l : list A) : is_nil l = true -> l = [].
  Proof. destruct l; [reflexivity|discriminate]. Qed.

  Lemma upd_same {A} (f : nat -> A) i x : upd f i x i = x.
  Proof. unfold upd. rewrite Nat.eqb_refl. reflexivity. Qed.
  Lemma upd_other {A} (f : nat -> A) i j x : j <> i -> upd f i x j = f j.
  Proof. unfold upd. intros H. destruct (Nat.eqb_spec j i); [contradiction|reflexivity]. Qed.

  Lemma unregister_in r l r' s : In (r', s) (unregister r l) -> In (r', s) l.
  Proof. unfold unregister. intros H. apply filter_In in H. tauto. Qed.
  Lemma unregister_other r l r' s : r' <> r -> In (r', s) l -> In (r', s) (unregister r l).
  Proof.
    unfold unregister. intros N H. apply filter_In. split; [exact H|]. cbn.
    destruct (Nat.eqb_spec r' r); [contradiction|reflexivity].
  Qed.

  (* the visible set of a list only changes at the sequence numbers of its entries *)
  Lemma vis_floor k s s0 e : s0 <= s -> (s0 < e_seq e -> s < e_seq e) -> vis k s e = vis k s0 e.
  Proof.
    intros H1 H2. unfold Lsm.vis. destruct (cmp c (e_uk e) k); [|reflexivity|reflexivity].
    destruct (e_seq e <=? s) eqn:A; destruct (e_seq e <=? s0) eqn:B; try reflexivity; lia.
  Qed.

  Lemma newest_floor k s s0 l acc : s0 <= s -> (forall e, In e l -> s0 < e_seq e -> s < e_seq e) ->
    newest k s l acc = newest k s0 l acc.
  Proof.
    intros H1. revert acc. induction l as [|e l IH]; intros acc H; cbn [Lsm.newest]; [reflexivity|].
    rewrite (vis_floor k s s0 e H1) by (apply H; left; reflexivity).
    apply IH. intros x Hx. apply H. right; exact Hx.
  Qed.

  (* the largest of [best] and the candidates that are <= s *)
  Fixpoint floor_of (s : N) (best : N) (cands : list N) : N :=
    match cands with
    | [] => best
    | x :: r => floor_of s (if (x <=? s) && (best <? x) then x else best) r
    end.

  Lemma floor_of_spec s cands : forall best, best <= s ->
    let f := floor_of s best cands in
    best <= f /\ f <= s /\ (f = best \/ In f cands) /\ (forall x, In x cands -> x <= s -> x <= f).
  Proof.
    induction cands as [|x r IH]; intros best Hb; cbn [floor_of].
    - cbn. split; [lia|]. split; [exact Hb|]. split; [left; reflexivity|]. intros x [].
    - destruct ((x <=? s) && (best <? x)) eqn:E.
      + apply andb_prop in E as [E1 E2]. apply N.leb_le in E1. apply N.ltb_lt in E2.
        destruct (IH x E1) as [A [B [C D]]]. cbn zeta in *. repeat split; try lia.
        * destruct C as [C|C]; [right; left; symmetry; exact C|right; right; exact C].
        * intros y [<-|Hy] Hys; [lia|]. apply D; assumption.
      + destruct (IH best Hb) as [A [B [C D]]]. cbn zeta in *. repeat split; try lia.
        * destruct C as [C|C]; [left; exact C|right; right; exact C].
        * intros y [<-|Hy] Hys; [|apply D; assumption].
          apply andb_false_iff in E as [E|E]; [apply N.leb_gt in E; lia|apply N.ltb_ge in E; lia].
  Qed.

  Definition rewrite_ok (st : state) (m : N) (v' : list entry) : Prop :=
    m <= d_seq st /\ (forall r s, In (r, s) (d_snaps st) -> m <= s) /\
    (forall e, In e v' -> In e (d_ver st)) /\
    (forall k s, m <= s -> res (newest k s v' None) = res (newest k s (d_ver st) None)).

  (* rewrite_okb tests the fourth clause only at the keys stored in the version and at the sequence numbers
     m and e_seq of its entries >= m.  An arbitrary (k, s) is moved to a tested pair: s to the largest tested
     number s0 <= s (newest_floor: no entry has its number in (s0, s]), k to a stored key e_uk e0 that compares
     Eq with it, hence is it (cmp_eq, the one place where the comparer must be injective); if no stored key
     compares Eq, both sides are None. *)
  Lemma rewrite_okb_sound st m v' : rewrite_okb c p st m v' = true -> rewrite_ok st m v'.
  Proof.
    unfold rewrite_okb. intros H. apply andb_prop in H as [H H4]. apply andb_prop in H as [H H3].
    apply andb_prop in H as [H1 H2]. apply N.leb_le in H1.
    pose proof (sub_entries_in _ _ H3) as Sub.
    split; [exact H1|]. split; [|split; [exact Sub|]].
    - intros r s Hin. rewrite forallb_forall in H2. specialize (H2 (r, s) Hin). cbn in H2. apply N.leb_le in H2. exact H2.
    - intros k s Hs. cbn zeta in H4. rewrite forallb_forall in H4.
      set (V := d_ver st) in *.
      set (cands := map e_seq (filter (fun e => m <=? e_seq e) V)) in *.
      (* does any stored entry carry the key? *)
      destruct (existsb (fun e => match cmp c (e_uk e) k with Eq => true | _ => false end) V) eqn:EX.
      + apply existsb_exists in EX as [e0 [He0 Ek]].
        destruct (cmp c (e_uk e0) k) eqn:Ek'; try discriminate. clear Ek.
        specialize (H4 e0 He0). rewrite forallb_forall in H4.
        destruct (floor_of_spec s cands m Hs) as [A [B [C D]]]. cbn zeta in *.
        set (s0 := floor_of s m cands) in *.
        assert (Hin : In s0 (m :: cands)) by (destruct C as [C|C]; [left; symmetry; exact C|right; exact C]).
        specialize (H4 s0 Hin). apply opt_bytes_eqb_eq in H4.
        assert (Fl : forall l, (forall e, In e l -> In e V) -> newest k s l None = newest k s0 l None).
        { intros l Hl. apply newest_floor; [exact B|]. intros e He Hlt.
          destruct (N.lt_ge_cases s (e_seq e)) as [G|G]; [exact G|exfalso].
          assert (In (e_seq e) cands).
          { unfold cands. apply in_map. apply filter_In. split; [apply Hl; exact He|]. apply N.leb_le. lia. }
          specialize (D _ H G). lia. }
        rewrite (Fl v' Sub), (Fl V (fun e H => H)). apply (cmp_eq c ok) in Ek'. subst k. exact H4.
      + assert (NV : forall l, (forall e, In e l -> In e V) -> newest k s l None = None).
        { intros l Hl. apply newest_none_iff. intros x Hx. unfold Lsm.vis.
          destruct (cmp c (e_uk x) k) eqn:E; try reflexivity. exfalso.
          assert (existsb (fun e => match cmp c (e_uk e) k with Eq => true | _ => false end) V = true).
          { apply existsb_exists. exists x. split; [apply Hl; exact Hx|]. rewrite E. reflexivity. }
          congruence. }
        rewrite (NV v' Sub), (NV V (fun e H => H)). reflexivity.
  Qed.

  Definition top (st : state) : N := d_seq st + d_wn st + d_tn st.

  (* sequence numbers a reader may still fix or have fixed and registered *)
  Definition prot (st : state) (s : N) : Prop := (exists r, In (r, s) (d_snaps st)) \/ d_seq st <= s.

  Definition hist_ext (st : state) (h0 : list entry) (s : N) : Prop :=
    exists tl, d_hist st = h0 ++ tl /\ forall e, In e tl -> s < e_seq e.

  Definition cap_ok (st : state) (x : reader) (V : list entry) : Prop :=
    forall k, res (cutget (d_hp st (r_m x)) (hpo (d_hp st) (r_f x)) V k (r_s x)) = spec (d_hist st) k (r_s x).

  Record rinv (st : state) (r : nat) (x : reader) : Prop := {
    ri_alt : r_ph x <> PVerOnly;
    ri_base : r_ph x <> PIdle -> r_s x <= d_seq st /\ hist_ext st (r_h0 x) (r_s x);
    ri_reg : r_reg x = true -> r_ph x <> PIdle /\ In (r, r_s x) (d_snaps st);
    ri_mems : r_ph x = PMems ->
      r_reg x = true /\ (r_m x <= d_cur st)%nat /\
      (forall j e, (r_m x < j)%nat -> In e (d_hp st j) -> r_s x < e_seq e) /\
      (r_m x = d_cur st -> d_frz st = None \/ r_f x = d_frz st) /\
      cap_ok st x (d_ver st);
    ri_ver : r_ph x = PVer -> cap_ok st x (r_v x)
  }.

  (* i_hist .. i_fl: bounds on sequence numbers and the shape of the memdb pool; i_fc, i_l1, i_l2: entries are
     older in the version than in the frozen memdb (only while d_fl = false: its table is not installed yet),
     and older in both than in the live one; i_a: the live buffers and the version answer like the history at
     every sequence number a reader has registered or can still fix; i_b: while the frozen memdb's table is
     installed, skipping the frozen memdb changes no answer. *)
  Record inv (st : state) : Prop := {
    i_hist : forall e, In e (d_hist st) -> e_seq e <= top st;
    i_hp : forall j e, In e (d_hp st j) -> e_seq e <= d_seq st + d_wn st;
    i_ver : forall e, In e (d_ver st) -> e_seq e <= top st;
    i_z : forall j, (d_cur st < j)%nat -> d_hp st j = [];
    i_frz : forall f, d_frz st = Some f -> S f = d_cur st;
    i_fl : d_fl st = true -> d_frz st <> None;
    i_fc : forall f x y, d_frz st = Some f -> In x (d_hp st f) -> In y (d_hp st (d_cur st)) -> e_seq x < e_seq y;
    i_l1 : forall x y, In x (d_ver st) -> In y (d_hp st (d_cur st)) -> e_seq x < e_seq y;
    i_l2 : forall f x y, d_frz st = Some f -> d_fl st = false -> In x (d_ver st) -> In y (d_hp st f) -> e_seq x < e_seq y;
    i_a : forall k s, prot st s ->
      res (cutget (d_hp st (d_cur st)) (hpo (d_hp st) (d_frz st)) (d_ver st) k s) = spec (d_hist st) k s;
    i_b : d_fl st = true -> forall k s, prot st s ->
      res (cutget [] (hpo (d_hp st) (d_frz st)) (d_ver st) k s) = res (newest k s (d_ver st) None);
    i_rd : forall r, rinv st r (d_rd st r);
    i_rlog : forall r s h0 k a, In (r, s, h0, k, a) (d_rlog st) ->
      a = spec (d_hist st) k s /\ s <= d_seq st /\ hist_ext st h0 s
  }.

  Lemma inv_init : inv init.
  Proof.
    constructor; unfold init, top, prot; sim.
    - intros e [].
    - intros j e [].
    - intros e [].
    - reflexivity.
    - discriminate.
    - discriminate.
    - discriminate.
    - intros x y [].
    - discriminate.
    - intros k s _. reflexivity.
    - discriminate.
    - intros r. unfold no_readers. constructor; sim; try discriminate; try congruence.
    - intros r s h0 k a [].
  Qed.

  (* inversion of step, one lemma per action (the guard on the lock holder is dropped: no proof below needs it) *)
  Ltac boolsplit H :=
    repeat match type of H with
           | (_ && _) = true => let H1 := fresh H in apply andb_prop in H as [H H1]
           end.

  Lemma step_ins st w e st' : step st (AIns w e) = Some st' ->
    d_tn st = 0 /\ e_seq e = d_seq st + d_wn st + 1 /\
    st' = with_writer st (upd (d_hp st) (d_cur st) (d_hp st (d_cur st) ++ [e])) (Some w) (d_wn st + 1)
                      (d_hist st ++ [e]) (d_pend st ++ [e]).
  Proof.
    cbn [ReadCut.step]. destruct (_ && _) eqn:E; [|discriminate]. intros H. injection H as <-.
    boolsplit E. apply N.eqb_eq in E0, E1. auto.
  Qed.

  Lemma step_publish st w n st' : step st (APublish w n) = Some st' ->
    n = d_wn st /\ 0 < n /\ d_tn st = 0 /\ st' = with_publish st (d_seq st + n) (d_seq st, d_seq st + n, d_pend st).
  Proof.
    cbn [ReadCut.step]. destruct (_ && _) eqn:E; [|discriminate]. intros H. injection H as <-.
    boolsplit E. apply N.eqb_eq in E0, E2. apply N.ltb_lt in E1. auto.
  Qed.

  Lemma step_rotate st w st' : step st (ARotate w) = Some st' ->
    d_wn st = 0 /\ d_tn st = 0 /\ d_frz st = None /\
    st' = with_mems st (S (d_cur st)) (Some (d_cur st)) false (d_dropped st).
  Proof.
    cbn [ReadCut.step]. destruct (_ && _) eqn:E; [|discriminate]. destruct (d_frz st) eqn:F; [discriminate|].
    intros H. injection H as <-. boolsplit E. apply N.eqb_eq in E0, E1. auto.
  Qed.

  Lemma step_install st es st' : step st (AInstallTable es) = Some st' ->
    exists f, d_frz st = Some f /\ d_fl st = false /\ st' = with_ver st (d_ver st ++ d_hp st f) true (d_dropped st).
  Proof.
    cbn [ReadCut.step]. destruct (d_frz st) as [f|] eqn:F; [|discriminate].
    destruct (_ && _) eqn:E; [|discriminate]. intros H. injection H as <-.
    boolsplit E. exists f. split; [reflexivity|]. split; [destruct (d_fl st); [discriminate|reflexivity]|reflexivity].
  Qed.

  Lemma step_drop st st' : step st ADropFrozen = Some st' ->
    exists f, d_frz st = Some f /\ (d_fl st = true \/ d_hp st f = []) /\
              st' = with_mems st (d_cur st) None false (d_dropped st).
  Proof.
    cbn [ReadCut.step]. destruct (d_frz st) as [f|] eqn:F; [|discriminate].
    destruct (_ || _) eqn:E; [|discriminate]. intros H. injection H as <-.
    exists f. split; [reflexivity|]. split; [|reflexivity].
    apply orb_prop in E as [E|E]; [left; exact E|right; apply is_nil_true; exact E].
  Qed.

  Lemma step_rewrite st m v' st' : step st (AInstallRewrite m v') = Some st' ->
    rewrite_ok st m v' /\ st' = with_ver st v' (d_fl st) (d_dropped st).
  Proof.
    cbn [ReadCut.step]. destruct (rewrite_okb c p st m v') eqn:E; [|discriminate]. intros H. injection H as <-.
    split; [apply rewrite_okb_sound; exact E|reflexivity].
  Qed.

  Lemma step_txn st w es st' : step st (ATxnInstall w es) = Some st' ->
    d_wn st = 0 /\ d_tn st = 0 /\ d_hp st (d_cur st) = [] /\ d_frz st = None /\
    (forall e, In e es -> d_seq st < e_seq e <= d_seq st + N.of_nat (length es)) /\
    st' = with_txn st (d_ver st ++ es) (d_hist st ++ es) es (Some w) (N.of_nat (length es)).
  Proof.
    cbn [ReadCut.step]. destruct (_ && _) eqn:E; [|discriminate]. destruct (d_frz st) eqn:F; [discriminate|].
    intros H. injection H as <-. boolsplit E. apply N.eqb_eq in E3, E4. apply is_nil_true in E2.
    unfold txn_seqs_ok in E0. apply andb_prop in E0 as [E0 _]. rewrite forallb_forall in E0.
    repeat split; auto; specialize (E0 e H); apply andb_prop in E0 as [A B];
      [apply N.ltb_lt in A; exact A|apply N.leb_le in B; exact B].
  Qed.

  Lemma step_setseq st w s' st' : step st (ASetSeq w s') = Some st' ->
    0 < d_tn st /\ s' = d_seq st + d_tn st /\ d_wn st = 0 /\ st' = with_publish st s' (d_seq st, s', d_pend st).
  Proof.
    cbn [ReadCut.step]. destruct (_ && _) eqn:E; [|discriminate]. intros H. injection H as <-.
    boolsplit E. apply N.eqb_eq in E0, E1. apply N.ltb_lt in E2. auto.
  Qed.

  Lemma step_rseq st r s st' : step st (ARSeq r s) = Some st' ->
    r_ph (d_rd st r) = PIdle /\ s = d_seq st /\
    st' = with_reader st r {| r_ph := PSeq; r_reg := true; r_s := s; r_m := O; r_f := None; r_v := []; r_h0 := d_hist st |}
                      ((r, s) :: d_snaps st) (d_rlog st).
  Proof.
    cbn [ReadCut.step]. destruct (r_ph (d_rd st r)) eqn:P; try discriminate.
    destruct (s =? d_seq st) eqn:E; [|discriminate]. intros H. injection H as <-. apply N.eqb_eq in E. auto.
  Qed.

  Lemma step_rmems st r st' : step st (ARMems r) = Some st' ->
    r_ph (d_rd st r) <> PIdle /\ r_reg (d_rd st r) = true /\
    st' = with_reader st r (set_mems (d_rd st r) PMems (d_cur st) (d_frz st)) (d_snaps st) (d_rlog st).
  Proof.
    cbn [ReadCut.step]. cbn zeta. destruct (r_ph (d_rd st r)) eqn:P; try discriminate;
      (destruct (r_reg (d_rd st r)) eqn:R; [|discriminate]); intros H; injection H as <-;
      (split; [discriminate|auto]).
  Qed.

  Lemma step_rversion st r st' : step st (ARVersion r) = Some st' ->
    r_ph (d_rd st r) = PMems /\
    st' = with_reader st r (set_version (d_rd st r) PVer (d_ver st)) (d_snaps st) (d_rlog st).
  Proof.
    cbn [ReadCut.step]. cbn zeta. destruct (r_ph (d_rd st r)) eqn:P; try discriminate.
    intros H; injection H as <-; auto.
  Qed.

  Lemma cutget_hit_any M F V k s e : cutget M F [] k s = Some e -> cutget M F V k s = Some e.
  Proof.
    unfold ReadCut.cutget. destruct (newest k s M None); [auto|]. destruct (newest k s F None); [auto|].
    cbn [Lsm.newest]. discriminate.
  Qed.

  Lemma step_rlookup st r k ans st' : step st (ARLookup r k ans) = Some st' ->
    let x := d_rd st r in
    exists a,
      ((r_ph x = PVer /\ a = res (cutget (d_hp st (r_m x)) (hpo (d_hp st) (r_f x)) (r_v x) k (r_s x))) \/
       (r_ph x = PMems /\ a = res (cutget (d_hp st (r_m x)) (hpo (d_hp st) (r_f x)) (d_ver st) k (r_s x)))) /\
      a = ans /\
      st' = with_reader st r x (d_snaps st) ((r, r_s x, r_h0 x, k, a) :: d_rlog st).
  Proof.
    cbn [ReadCut.step]. cbn zeta. destruct (r_ph (d_rd st r)) eqn:P; try discriminate.
    - destruct (cutget _ _ [] k _) as [e|] eqn:C; [|discriminate].
      destruct (opt_bytes_eqb _ ans) eqn:E; [|discriminate]. intros H; injection H as <-.
      apply opt_bytes_eqb_eq in E. exists (res (Some e)). split; [|split; [exact E|reflexivity]].
      right. split; [reflexivity|]. rewrite (cutget_hit_any _ _ (d_ver st) _ _ _ C). reflexivity.
    - destruct (opt_bytes_eqb _ ans) eqn:E; [|discriminate]. intros H; injection H as <-.
      apply opt_bytes_eqb_eq in E. eexists. split; [left; split; reflexivity|]. split; [exact E|reflexivity].
  Qed.

  Lemma step_rrelease st r st' : step st (ARRelease r) = Some st' ->
    r_ph (d_rd st r) <> PIdle /\
    exists x', r_ph x' <> PMems /\ r_ph x' <> PIdle /\ r_ph x' <> PVerOnly /\ r_reg x' = false /\
               r_s x' = r_s (d_rd st r) /\ r_h0 x' = r_h0 (d_rd st r) /\
               (r_ph x' = PVer -> r_ph (d_rd st r) = PVer /\ r_m x' = r_m (d_rd st r) /\ r_f x' = r_f (d_rd st r) /\
                                  r_v x' = r_v (d_rd st r)) /\
               st' = with_reader st r x' (unregister r (d_snaps st)) (d_rlog st).
  Proof.
    cbn [ReadCut.step]. cbn zeta. destruct (r_ph (d_rd st r)) eqn:P; try discriminate.
    - destruct (r_reg (d_rd st r)) eqn:R; [|discriminate]. intros H; injection H as <-.
      split; [discriminate|]. exists (set_reg (d_rd st r) false). sim. rewrite P.
      split; [discriminate|]. split; [discriminate|]. split; [discriminate|]. split; [reflexivity|].
      split; [reflexivity|]. split; [reflexivity|]. split; [intros Q; discriminate Q|reflexivity].
    - intros H; injection H as <-.
      split; [discriminate|]. exists (set_reg (set_phase (d_rd st r) PSeq) false). sim.
      split; [discriminate|]. split; [discriminate|]. split; [discriminate|]. split; [reflexivity|].
      split; [reflexivity|]. split; [reflexivity|]. split; [intros Q; discriminate Q|reflexivity].
    - destruct (r_reg (d_rd st r)) eqn:R; [|discriminate]. intros H; injection H as <-.
      split; [discriminate|]. exists (set_reg (d_rd st r) false). sim. rewrite P.
      split; [discriminate|]. split; [discriminate|]. split; [discriminate|]. split; [reflexivity|].
      split; [reflexivity|]. split; [reflexivity|]. split; [intros _; auto|reflexivity].
  Qed.

  Lemma step_rdone st r st' : step st (ARDone r) = Some st' ->
    st' = with_reader st r idle_reader (d_snaps st) (d_rlog st).
  Proof.
    cbn [ReadCut.step]. cbn zeta. destruct (r_ph (d_rd st r)) eqn:P; try discriminate;
      (destruct (r_reg (d_rd st r)) eqn:R; [discriminate|]); intros H; injection H as <-; auto.
  Qed.

  Lemma newest_upd_ins hp cur e k s i : s < e_seq e ->
    newest k s (upd hp cur (hp cur ++ [e]) i) None = newest k s (hp i) None.
  Proof.
    intros H. unfold upd. destruct (Nat.eqb_spec i cur) as [->|N]; [|reflexivity].
    apply newest_app_invis. intros x [<-|[]]. apply vis_above. exact H.
  Qed.

  Lemma cutget_ins hp cur e k s m f V : s < e_seq e ->
    cutget (upd hp cur (hp cur ++ [e]) m) (hpo (upd hp cur (hp cur ++ [e])) f) V k s = cutget (hp m) (hpo hp f) V k s.
  Proof.
    intros H. unfold ReadCut.cutget. rewrite newest_upd_ins by exact H.
    destruct f as [f|]; cbn [hpo]; [rewrite newest_upd_ins by exact H|]; reflexivity.
  Qed.

  Lemma hist_ext_grow st h0 s tl' : hist_ext st h0 s -> (forall e, In e tl' -> s < e_seq e) ->
    exists tl, d_hist st ++ tl' = h0 ++ tl /\ forall e, In e tl -> s < e_seq e.
  Proof.
    intros [tl [E H]] H'. exists (tl ++ tl'). split; [rewrite E, app_assoc; reflexivity|].
    intros e He. apply in_app_or in He as [He|He]; auto.
  Qed.

  Lemma hpo_upd_frz st X : inv st ->
    hpo (upd (d_hp st) (d_cur st) X) (d_frz st) = hpo (d_hp st) (d_frz st).
  Proof.
    intros I. destruct (d_frz st) as [f|] eqn:F; [|reflexivity]. cbn [hpo].
    apply upd_other. pose proof (i_frz st I f F). lia.
  Qed.

  Definition mems_ok (st : state) (x : reader) : Prop :=
    (r_m x <= d_cur st)%nat /\
    (forall j e, (r_m x < j)%nat -> In e (d_hp st j) -> r_s x < e_seq e) /\
    (r_m x = d_cur st -> d_frz st = None \/ r_f x = d_frz st) /\
    cap_ok st x (d_ver st).

  (* what a step must re-establish for a reader it does not touch *)
  Lemma rinv_frame st st' r x :
    rinv st r x ->
    d_seq st <= d_seq st' ->
    (exists tl, d_hist st' = d_hist st ++ tl /\ forall e, In e tl -> d_seq st < e_seq e) ->
    (r_reg x = true -> In (r, r_s x) (d_snaps st) -> In (r, r_s x) (d_snaps st')) ->
    (r_ph x = PMems -> r_s x <= d_seq st -> In (r, r_s x) (d_snaps st) -> mems_ok st x -> mems_ok st' x) ->
    (r_ph x = PVer -> r_s x <= d_seq st -> cap_ok st x (r_v x) -> cap_ok st' x (r_v x)) ->
    rinv st' r x.
  Proof.
    intros R Hs [tl [Hh Htl]] Hsn Hm Hv. constructor.
    - apply (ri_alt _ _ _ R).
    - intros P. destruct (ri_base _ _ _ R P) as [A [tl0 [B C]]]. split; [lia|].
      exists (tl0 ++ tl). split; [rewrite Hh, B, app_assoc; reflexivity|].
      intros e He. apply in_app_or in He as [He|He]; [apply C; exact He|specialize (Htl e He); lia].
    - intros Rg. destruct (ri_reg _ _ _ R Rg) as [A B]. split; [exact A|apply Hsn; assumption].
    - intros P. destruct (ri_mems _ _ _ R P) as [Rg M].
      destruct (ri_base _ _ _ R ltac:(congruence)) as [A _]. destruct (ri_reg _ _ _ R Rg) as [_ B].
      split; [exact Rg|]. apply (Hm P A B). exact M.
    - intros P. destruct (ri_base _ _ _ R ltac:(congruence)) as [A _]. apply (Hv P A). apply (ri_ver _ _ _ R P).
  Qed.

  Lemma inv_ins st w e st' : inv st -> step st (AIns w e) = Some st' -> inv st'.
  Proof.
    intros I H. apply step_ins in H as [Ht [He ->]].
    set (hp' := upd (d_hp st) (d_cur st) (d_hp st (d_cur st) ++ [e])).
    assert (HpIn : forall j x, In x (hp' j) -> In x (d_hp st j) \/ (j = d_cur st /\ x = e)).
    { intros j x. unfold hp', upd. destruct (Nat.eqb_spec j (d_cur st)) as [->|N]; [|auto].
      intros Hx. apply in_app_or in Hx as [Hx|[<-|[]]]; auto. }
    assert (Hcur : hp' (d_cur st) = d_hp st (d_cur st) ++ [e]) by apply upd_same.
    assert (Bh : forall x, In x (d_hist st) -> e_seq x < e_seq e).
    { intros x Hx. pose proof (i_hist st I x Hx). unfold top in *. lia. }
    assert (Bv : forall x, In x (d_ver st) -> e_seq x < e_seq e).
    { intros x Hx. pose proof (i_ver st I x Hx). unfold top in *. lia. }
    assert (Bp : forall j x, In x (d_hp st j) -> e_seq x < e_seq e).
    { intros j x Hx. pose proof (i_hp st I j x Hx). lia. }
    assert (Hfrz : hpo hp' (d_frz st) = hpo (d_hp st) (d_frz st)) by (apply hpo_upd_frz; exact I).
    constructor; unfold top, prot in *; sim; fold hp'.
    - intros x Hx. apply in_app_or in Hx as [Hx|[<-|[]]]; [pose proof (i_hist st I x Hx); unfold top in *; lia|lia].
    - intros j x Hx. apply HpIn in Hx as [Hx|[_ ->]]; [pose proof (i_hp st I j x Hx); lia|lia].
    - intros x Hx. pose proof (i_ver st I x Hx). unfold top in *. lia.
    - intros j Hj. unfold hp'. rewrite upd_other by lia. apply (i_z st I). exact Hj.
    - apply (i_frz st I).
    - apply (i_fl st I).
    - intros f x y F Hx Hy. pose proof (i_frz st I f F) as Sf.
      unfold hp' in Hx. rewrite upd_other in Hx by lia. rewrite Hcur in Hy.
      apply in_app_or in Hy as [Hy|[<-|[]]]; [apply (i_fc st I f x y F Hx Hy)|apply (Bp f); exact Hx].
    - intros x y Hx Hy. rewrite Hcur in Hy.
      apply in_app_or in Hy as [Hy|[<-|[]]]; [apply (i_l1 st I x y Hx Hy)|apply Bv; exact Hx].
    - intros f x y F Fl Hx Hy. pose proof (i_frz st I f F) as Sf.
      unfold hp' in Hy. rewrite upd_other in Hy by lia. apply (i_l2 st I f x y F Fl Hx Hy).
    - intros k s Hs. rewrite Hfrz, Hcur. destruct (vis k s e) eqn:V.
      + unfold ReadCut.cutget, ReadCut.spec.
        rewrite (newest_snoc_top k s _ e V (Bp (d_cur st))).
        rewrite (newest_snoc_top k s _ e V Bh). reflexivity.
      + rewrite cutget_M_invis by (intros x [<-|[]]; exact V).
        unfold ReadCut.spec. rewrite newest_app_invis by (intros x [<-|[]]; exact V).
        apply (i_a st I). exact Hs.
    - intros Fl k s Hs. rewrite Hfrz. apply (i_b st I Fl). exact Hs.
    - intros r. apply (rinv_frame st _ r _ (i_rd st I r)); sim.
      + lia.
      + exists [e]. split; [reflexivity|]. intros y [<-|[]]. lia.
      + auto.
      + intros P Sle _ [Mle [D [E C]]]. split; [exact Mle|]. split; [|split; [exact E|]].
        * intros j y Hj Hy. apply HpIn in Hy as [Hy|[_ ->]]; [apply (D j y Hj Hy)|lia].
        * intros k. unfold cap_ok in *; sim. fold hp'. unfold hp'. rewrite cutget_ins by lia.
          unfold ReadCut.spec. rewrite newest_app_invis by (intros y [<-|[]]; apply vis_above; lia). apply C.
      + intros P Sle C k. unfold cap_ok in *; sim. fold hp'. unfold hp'. rewrite cutget_ins by lia.
        unfold ReadCut.spec. rewrite newest_app_invis by (intros y [<-|[]]; apply vis_above; lia). apply C.
    - intros r s h0 k a Hin. destruct (i_rlog st I r s h0 k a Hin) as [A [B C]].
      split; [|split; [exact B|]].
      + unfold ReadCut.spec. rewrite newest_app_invis by (intros y [<-|[]]; apply vis_above; lia). exact A.
      + apply hist_ext_grow; [exact C|]. intros y [<-|[]]. lia.
  Qed.

  Lemma hist_same st : exists tl, d_hist st = d_hist st ++ tl /\ forall e, In e tl -> d_seq st < e_seq e.
  Proof. exists []. split; [rewrite app_nil_r; reflexivity|intros e []]. Qed.

  (* publication: addSeq / setSeq *)
  Lemma inv_pub st s' g : inv st -> s' = top st -> inv (with_publish st s' g).
  Proof.
    intros I H2. unfold top in H2.
    assert (Pr : forall s, prot (with_publish st s' g) s -> prot st s).
    { unfold prot; sim. intros s [A|A]; [left; exact A|right; lia]. }
    constructor; unfold top; sim.
    - intros e He. pose proof (i_hist st I e He). unfold top in *. lia.
    - intros j e He. pose proof (i_hp st I j e He). lia.
    - intros e He. pose proof (i_ver st I e He). unfold top in *. lia.
    - apply (i_z st I).
    - apply (i_frz st I).
    - apply (i_fl st I).
    - apply (i_fc st I).
    - apply (i_l1 st I).
    - apply (i_l2 st I).
    - intros k s Hs. apply (i_a st I). apply Pr. exact Hs.
    - intros Fl k s Hs. apply (i_b st I Fl). apply Pr. exact Hs.
    - intros r. apply (rinv_frame st); sim; auto; try lia.
      + apply (i_rd st I).
      + apply hist_same.
    - intros r s h0 k a Hin. destruct (i_rlog st I r s h0 k a Hin) as [A [B C]]. split; [exact A|]. split; [lia|exact C].
  Qed.

  Lemma inv_publish st w n st' : inv st -> step st (APublish w n) = Some st' -> inv st'.
  Proof.
    intros I H. apply step_publish in H as [Hn [Hp [Ht ->]]]. apply inv_pub; [exact I|unfold top; lia].
  Qed.

  Lemma inv_setseq st w s' st' : inv st -> step st (ASetSeq w s') = Some st' -> inv st'.
  Proof.
    intros I H. apply step_setseq in H as [Hp [Hs [Hw ->]]]. apply inv_pub; [exact I|unfold top; lia].
  Qed.

  Lemma inv_rotate st w st' : inv st -> step st (ARotate w) = Some st' -> inv st'.
  Proof.
    intros I H. apply step_rotate in H as [Hw [Ht [F ->]]].
    assert (Z : d_hp st (S (d_cur st)) = []) by (apply (i_z st I); lia).
    constructor; unfold top, prot; sim.
    - apply (i_hist st I).
    - apply (i_hp st I).
    - apply (i_ver st I).
    - intros j Hj. apply (i_z st I). lia.
    - intros f E. injection E as <-. reflexivity.
    - discriminate.
    - intros f x y E Hx Hy. rewrite Z in Hy. destruct Hy.
    - intros x y Hx Hy. rewrite Z in Hy. destruct Hy.
    - intros f x y E _ Hx Hy. injection E as <-. apply (i_l1 st I x y Hx Hy).
    - intros k s Hs. rewrite Z. cbn [hpo]. rewrite cutget_rotate.
      pose proof (i_a st I k s Hs) as A. rewrite F in A. cbn [hpo] in A. exact A.
    - discriminate.
    - intros r. apply (rinv_frame st); sim; auto; try lia.
      + apply (i_rd st I).
      + apply hist_same.
      + intros P Sle Hin [M [D [E C]]]. unfold mems_ok; sim. split; [lia|]. split; [exact D|]. split; [intros; lia|exact C].
    - apply (i_rlog st I).
  Qed.

  (* a flush installs its table, then drops the frozen memdb *)
  Lemma inv_install st es st' : inv st -> step st (AInstallTable es) = Some st' -> inv st'.
  Proof.
    intros I H. apply step_install in H as [f [F [Fl ->]]].
    pose proof (i_frz st I f F) as Sf.
    constructor; unfold top, prot; sim.
    - apply (i_hist st I).
    - apply (i_hp st I).
    - intros e He. apply in_app_or in He as [He|He]; [apply (i_ver st I e He)|].
      pose proof (i_hp st I f e He). unfold top. lia.
    - apply (i_z st I).
    - apply (i_frz st I).
    - intros _. congruence.
    - apply (i_fc st I).
    - intros x y Hx Hy. apply in_app_or in Hx as [Hx|Hx]; [apply (i_l1 st I x y Hx Hy)|apply (i_fc st I f x y F Hx Hy)].
    - discriminate.
    - intros k s Hs. rewrite cutget_install; [apply (i_a st I k s Hs)|].
      intros _ B. rewrite F in B. cbn [hpo] in B. apply newest_none_iff. exact B.
    - intros _ k s Hs. rewrite F. cbn [hpo]. unfold ReadCut.cutget. cbn [Lsm.newest].
      rewrite (newest_app c). destruct (newest k s (d_hp st f) None) as [y|] eqn:Y.
      + destruct (newest k s (d_ver st) None) as [a|] eqn:A; [|rewrite Y; reflexivity].
        apply newest_some_vis in A as [Ha _].
        rewrite (HistoryProofs.newest_acc_none c); [rewrite Y; reflexivity| |].
        * intros x Hx _. apply (i_l2 st I f a x F Fl Ha Hx).
        * exists y. apply newest_some_vis. exact Y.
      + rewrite newest_none_iff in Y. rewrite (newest_none c k s _ Y). reflexivity.
    - intros r. apply (rinv_frame st); sim; auto; try lia.
      + apply (i_rd st I).
      + apply hist_same.
      + intros P Sle Hin [M [D [E C]]]. unfold mems_ok; sim. split; [exact M|]. split; [exact D|]. split; [exact E|].
        intros k. unfold cap_ok in *; sim. rewrite cutget_install; [apply C|].
        intros A B. set (x := d_rd st r) in *.
        (* the flushed memdb f is the reader's frozen one, its live one, or was born after its capture *)
        destruct (Nat.lt_trichotomy f (r_m x)) as [Lt|[Eq|Gt]].
        * assert (r_m x = d_cur st) as Em by lia. destruct (E Em) as [E'|E']; [congruence|].
          rewrite E', F in B. cbn [hpo] in B. apply newest_none_iff. exact B.
        * subst f. apply newest_none_iff. exact A.
        * apply invisible_above. intros e He. apply (D f e Gt He).
    - apply (i_rlog st I).
  Qed.

  Lemma inv_drop st st' : inv st -> step st ADropFrozen = Some st' -> inv st'.
  Proof.
    intros I H. apply step_drop in H as [f [F [Hd ->]]].
    constructor; unfold top, prot; sim.
    - apply (i_hist st I).
    - apply (i_hp st I).
    - apply (i_ver st I).
    - apply (i_z st I).
    - discriminate.
    - discriminate.
    - discriminate.
    - apply (i_l1 st I).
    - discriminate.
    - intros k s Hs. pose proof (i_a st I k s Hs) as A. rewrite <- A. rewrite F. cbn [hpo].
      destruct Hd as [Fl|E].
      + pose proof (i_b st I Fl k s Hs) as B. rewrite F in B. cbn [hpo] in B.
        unfold ReadCut.cutget in *. cbn [Lsm.newest] in *.
        destruct (newest k s (d_hp st (d_cur st)) None); [reflexivity|]. symmetry. exact B.
      + rewrite E. reflexivity.
    - discriminate.
    - intros r. apply (rinv_frame st); sim; auto; try lia.
      + apply (i_rd st I).
      + apply hist_same.
      + intros P Sle Hin [M [D [E C]]]. unfold mems_ok; sim. split; [exact M|]. split; [exact D|]. split; [intros; left; reflexivity|exact C].
    - apply (i_rlog st I).
  Qed.

  (* table compaction / trivial move: an admissible rewrite of the version *)
  Lemma inv_rewrite st m v' st' : inv st -> step st (AInstallRewrite m v') = Some st' -> inv st'.
  Proof.
    intros I H. apply step_rewrite in H as [[Hm [Hsn [Sub Hres]]] ->].
    assert (Pm : forall s, prot st s -> m <= s).
    { intros s [[r Hr]|Hs]; [apply (Hsn r s Hr)|lia]. }
    constructor; unfold top; sim.
    - apply (i_hist st I).
    - apply (i_hp st I).
    - intros e He. apply (i_ver st I). apply Sub. exact He.
    - apply (i_z st I).
    - apply (i_frz st I).
    - apply (i_fl st I).
    - apply (i_fc st I).
    - intros x y Hx Hy. apply (i_l1 st I x y (Sub x Hx) Hy).
    - intros f x y F Fl Hx Hy. apply (i_l2 st I f x y F Fl (Sub x Hx) Hy).
    - intros k s Hs. rewrite <- (i_a st I k s Hs). apply cutget_ver. apply Hres. apply Pm. exact Hs.
    - intros Fl k s Hs. rewrite (cutget_ver _ _ v' (d_ver st)) by (apply Hres; apply Pm; exact Hs).
      rewrite (i_b st I Fl k s Hs). symmetry. apply Hres. apply Pm. exact Hs.
    - intros r. apply (rinv_frame st); sim; auto; try lia.
      + apply (i_rd st I).
      + apply hist_same.
      + intros P Sle Hin [M [D [E C]]]. unfold mems_ok; sim. split; [exact M|]. split; [exact D|]. split; [exact E|].
        intros k. unfold cap_ok in *; sim. rewrite <- (C k). apply cutget_ver. apply Hres. apply (Hsn r). exact Hin.
    - apply (i_rlog st I).
  Qed.

  (* transaction commit: tables first, sequence number second *)
  Lemma inv_txn st w es st' : inv st -> step st (ATxnInstall w es) = Some st' -> inv st'.
  Proof.
    intros I H. apply step_txn in H as [Hw [Ht [Hm [F [Hes ->]]]]].
    assert (Above : forall s, s <= d_seq st -> forall e, In e es -> s < e_seq e).
    { intros s Hs e He. specialize (Hes e He). lia. }
    assert (Hx : exists tl, d_hist st ++ es = d_hist st ++ tl /\ forall e, In e tl -> d_seq st < e_seq e).
    { exists es. split; [reflexivity|]. intros e He. specialize (Hes e He). lia. }
    constructor; unfold top, prot; sim.
    - intros e He. apply in_app_or in He as [He|He]; [pose proof (i_hist st I e He); unfold top in *; lia|].
      specialize (Hes e He). lia.
    - apply (i_hp st I).
    - intros e He. apply in_app_or in He as [He|He]; [pose proof (i_ver st I e He); unfold top in *; lia|].
      specialize (Hes e He). lia.
    - apply (i_z st I).
    - apply (i_frz st I).
    - apply (i_fl st I).
    - apply (i_fc st I).
    - intros x y _ Hy. rewrite Hm in Hy. destruct Hy.
    - congruence.
    - intros k s Hs. pose proof (i_a st I k s Hs) as A. rewrite Hm, F in *. cbn [hpo] in *.
      unfold ReadCut.cutget, ReadCut.spec in *. cbn [Lsm.newest] in *.
      apply (HistoryProofs.newest_append_newer c p); [exact A|].
      intros a x [Ha|Ha] Hx'; specialize (Hes x Hx');
        [pose proof (i_ver st I a Ha)|pose proof (i_hist st I a Ha)]; unfold top in *; lia.
    - intros Fl. exfalso. apply (i_fl st I Fl). exact F.
    - intros r. apply (rinv_frame st); sim; auto; try lia.
      + apply (i_rd st I).
      + intros P Sle Hin [M [D [E C]]]. unfold mems_ok; sim. split; [exact M|]. split; [exact D|]. split; [exact E|].
        intros k. unfold cap_ok in *; sim. rewrite cutget_V_invis by (apply invisible_above; apply Above; exact Sle).
        rewrite spec_app_above by (apply Above; exact Sle). apply C.
      + intros P Sle C k. unfold cap_ok in *; sim. rewrite spec_app_above by (apply Above; exact Sle). apply C.
    - intros r s h0 k a Hin. destruct (i_rlog st I r s h0 k a Hin) as [A [B C]].
      split; [|split; [exact B|]].
      + rewrite spec_app_above by (apply Above; exact B). exact A.
      + apply hist_ext_grow; [exact C|]. apply Above. exact B.
  Qed.

  Lemma inv_reader_frame st r x snaps rlog :
    inv st ->
    (forall s, prot (with_reader st r x snaps rlog) s -> prot st s) ->
    rinv (with_reader st r x snaps rlog) r x ->
    (forall r' y, r' <> r -> rinv st r' y -> r_reg y = true -> In (r', r_s y) (d_snaps st) -> In (r', r_s y) snaps) ->
    (forall r' s h0 k a, In (r', s, h0, k, a) rlog ->
        a = spec (d_hist st) k s /\ s <= d_seq st /\ hist_ext st h0 s) ->
    inv (with_reader st r x snaps rlog).
  Proof.
    intros I Pr Rx Ro Rl. constructor; unfold top; sim.
    - apply (i_hist st I).
    - apply (i_hp st I).
    - apply (i_ver st I).
    - apply (i_z st I).
    - apply (i_frz st I).
    - apply (i_fl st I).
    - apply (i_fc st I).
    - apply (i_l1 st I).
    - apply (i_l2 st I).
    - intros k s Hs. apply (i_a st I). apply Pr. exact Hs.
    - intros Fl k s Hs. apply (i_b st I Fl). apply Pr. exact Hs.
    - intros r'. unfold upd. destruct (Nat.eqb_spec r' r) as [->|N]; [exact Rx|].
      pose proof (i_rd st I r') as R.
      apply (rinv_frame st); sim;
        [exact R|lia|apply hist_same|intros Rg Hin; apply (Ro r' _ N R Rg Hin)|auto|auto].
    - exact Rl.
  Qed.

  Lemma inv_rseq st r s st' : inv st -> step st (ARSeq r s) = Some st' -> inv st'.
  Proof.
    intros I H. apply step_rseq in H as [P [-> ->]]. apply inv_reader_frame; [exact I| | | |apply (i_rlog st I)].
    - unfold prot; sim. intros s [[r' [E|Hin]]|Hs]; [injection E as _ <-; right; lia|left; exists r'; exact Hin|right; exact Hs].
    - constructor; sim; try discriminate.
      + intros _. split; [lia|]. exists []. split; [rewrite app_nil_r; reflexivity|intros e []].
      + intros _. split; [discriminate|left; reflexivity].
    - intros r' y N R Rg Hin. right. exact Hin.
  Qed.

  Lemma inv_rmems st r st' : inv st -> step st (ARMems r) = Some st' -> inv st'.
  Proof.
    intros I H. apply step_rmems in H as [Pn [Rg ->]].
    pose proof (i_rd st I r) as R. set (x := d_rd st r) in *.
    destruct (ri_base _ _ _ R Pn) as [Sle Hx]. destruct (ri_reg _ _ _ R Rg) as [_ Hin].
    apply inv_reader_frame; [exact I| | | |apply (i_rlog st I)].
    - unfold prot; sim. auto.
    - constructor; sim; try discriminate.
      + intros _. split; [exact Sle|exact Hx].
      + intros _. split; [discriminate|exact Hin].
      + intros _. split; [exact Rg|]. split; [lia|]. split; [|split; [intros _; right; reflexivity|]].
        * intros j e Hj He. rewrite (i_z st I j Hj) in He. destruct He.
        * intros k. sim. apply (i_a st I). left. exists r. exact Hin.
    - intros r' y N _ _ Hin'. exact Hin'.
  Qed.

  Lemma inv_rversion st r st' : inv st -> step st (ARVersion r) = Some st' -> inv st'.
  Proof.
    intros I H. apply step_rversion in H as [P ->].
    pose proof (i_rd st I r) as R. set (x := d_rd st r) in *.
    destruct (ri_base _ _ _ R ltac:(congruence)) as [Sle Hx].
    destruct (ri_mems _ _ _ R P) as [Rg [M [D [E C]]]].
    apply inv_reader_frame; [exact I| | | |apply (i_rlog st I)].
    - unfold prot; sim. auto.
    - constructor; sim; try discriminate.
      + intros _. split; [exact Sle|exact Hx].
      + intros _. split; [discriminate|]. apply (ri_reg _ _ _ R Rg).
      + intros _. exact C.
    - intros r' y N _ _ Hin'. exact Hin'.
  Qed.

  Lemma rinv_same_fields st st' r x :
    rinv st r x -> d_seq st' = d_seq st -> d_hist st' = d_hist st -> d_snaps st' = d_snaps st ->
    d_hp st' = d_hp st -> d_cur st' = d_cur st -> d_frz st' = d_frz st -> d_ver st' = d_ver st ->
    rinv st' r x.
  Proof.
    intros R E1 E2 E3 E4 E5 E6 E7. destruct R as [A B C D E].
    constructor; unfold hist_ext, cap_ok in *; rewrite ?E1, ?E2, ?E3, ?E4, ?E5, ?E6, ?E7; assumption.
  Qed.

  Lemma inv_rlookup st r k ans st' : inv st -> step st (ARLookup r k ans) = Some st' -> inv st'.
  Proof.
    intros I H. apply step_rlookup in H as [a [Pa [_ ->]]].
    pose proof (i_rd st I r) as R. set (x := d_rd st r) in *.
    assert (Pn : r_ph x <> PIdle) by (destruct Pa as [[P _]|[P _]]; rewrite P; discriminate).
    destruct (ri_base _ _ _ R Pn) as [Sle Hx].
    assert (Ca : a = spec (d_hist st) k (r_s x)).
    { destruct Pa as [[P ->]|[P ->]]; [apply (ri_ver _ _ _ R P)|].
      destruct (ri_mems _ _ _ R P) as [_ [_ [_ [_ C]]]]. apply C. }
    apply inv_reader_frame; [exact I| | | |].
    - unfold prot; sim. auto.
    - apply (rinv_same_fields st); auto.
    - intros r' y N _ _ Hin'. exact Hin'.
    - intros r' s h0 k' a' [E|Hin]; [|apply (i_rlog st I r' s h0 k' a' Hin)].
      injection E as <- <- <- <- <-. split; [exact Ca|]. split; [exact Sle|exact Hx].
  Qed.

  Lemma inv_rrelease st r st' : inv st -> step st (ARRelease r) = Some st' -> inv st'.
  Proof.
    intros I H. apply step_rrelease in H as [Pn [x' [Pm [Pi [Pa [Rg [Es [Eh [Pv ->]]]]]]]]].
    pose proof (i_rd st I r) as R. set (x := d_rd st r) in *.
    destruct (ri_base _ _ _ R Pn) as [Sle Hx].
    apply inv_reader_frame; [exact I| | | |apply (i_rlog st I)].
    - unfold prot; sim. intros s [[r' Hin]|Hs]; [left; exists r'; apply (unregister_in r); exact Hin|right; exact Hs].
    - constructor; sim.
      + exact Pa.
      + intros _. rewrite Es, Eh. split; [exact Sle|exact Hx].
      + rewrite Rg. discriminate.
      + intros P. contradiction.
      + intros P. destruct (Pv P) as [P0 [Em [Ef Ev]]]. pose proof (ri_ver _ _ _ R P0) as C.
        unfold cap_ok in *; sim. rewrite Em, Ef, Ev, Es. exact C.
    - intros r' y N _ _ Hin'. apply unregister_other; assumption.
  Qed.

  Lemma inv_rdone st r st' : inv st -> step st (ARDone r) = Some st' -> inv st'.
  Proof.
    intros I H. apply step_rdone in H as ->.
    apply inv_reader_frame; [exact I| | | |apply (i_rlog st I)].
    - unfold prot; sim. auto.
    - constructor; sim; try discriminate; congruence.
    - intros r' y N _ _ Hin'. exact Hin'.
  Qed.

  Lemma inv_step st a st' : inv st -> step st a = Some st' -> inv st'.
  Proof.
    intros I H. destruct a.
    - eapply inv_ins; eauto.
    - eapply inv_publish; eauto.
    - eapply inv_rotate; eauto.
    - eapply inv_install; eauto.
    - eapply inv_drop; eauto.
    - eapply inv_rewrite; eauto.
    - eapply inv_txn; eauto.
    - eapply inv_setseq; eauto.
    - eapply inv_rseq; eauto.
    - eapply inv_rmems; eauto.
    - eapply inv_rversion; eauto.
    - eapply inv_rlookup; eauto.
    - eapply inv_rrelease; eauto.
    - eapply inv_rdone; eauto.
  Qed.

  Lemma inv_run tr : forall st st', inv st -> run st tr = Some st' -> inv st'.
  Proof.
    induction tr as [|a tr IH]; intros st st' I H; cbn [ReadCut.run] in H.
    - injection H as <-. exact I.
    - destruct (step st a) as [st1|] eqn:S; [|discriminate]. apply (IH st1); [eapply inv_step; eauto|exact H].
  Qed.

  (* read_cut: in every reachable state every answered read returned the state of the database at the
     reader's sequence number — judged on the history as it is now, and (the same thing) on the history as it
     was at the instant the reader fixed that sequence number. *)
  Theorem read_cut tr st : run init tr = Some st ->
    forall r s h0 k a, In (r, s, h0, k, a) (d_rlog st) ->
      a = spec (d_hist st) k s /\ a = spec h0 k s /\ s <= d_seq st /\
      exists tl, d_hist st = h0 ++ tl /\ forall e, In e tl -> s < e_seq e.
  Proof.
    intros H r s h0 k a Hin. pose proof (inv_run tr init st inv_init H) as I.
    destruct (i_rlog st I r s h0 k a Hin) as [A [B [tl [C D]]]].
    split; [exact A|]. split; [|split; [exact B|exists tl; split; assumption]].
    rewrite A, C. apply spec_app_above. exact D.
  Qed.

  (* the invariant behind it, for readers still in flight: the captured buffers followed by the current
     (before ARVersion) or captured (after) version answer every key as the history does at s *)
  Theorem read_cut_inflight tr st : run init tr = Some st -> forall r, rinv st r (d_rd st r).
  Proof. intros H r. apply (i_rd st (inv_run tr init st inv_init H)). Qed.

  Definition g_lo (g : group) : N := fst (fst g).
  Definition g_hi (g : group) : N := snd (fst g).
  Definition g_es (g : group) : list entry := snd g.

  (* the published groups tile (0, seq] without gaps: newest first, each starts where the previous one ended *)
  Fixpoint glchain (t : N) (gl : list group) : Prop :=
    match gl with
    | [] => t = 0
    | g :: rest => g_hi g = t /\ g_lo g < g_hi g /\ glchain (g_lo g) rest
    end.

  (* a value db.seq has taken *)
  Definition pubpt (st : state) (s : N) : Prop := s = 0 \/ exists g, In g (d_glog st) /\ g_hi g = s.

  Record inv2 (st : state) : Prop := {
    w_len : N.of_nat (length (d_pend st)) = d_wn st + d_tn st;
    w_chain : glchain (d_seq st) (d_glog st);
    w_groups : forall g e, In g (d_glog st) -> In e (g_es g) -> In e (d_hist st) /\ g_lo g < e_seq e <= g_hi g;
    w_pend : forall e, In e (d_pend st) -> In e (d_hist st) /\ d_seq st < e_seq e;
    w_cover : forall e, In e (d_hist st) -> In e (d_pend st) \/ exists g, In g (d_glog st) /\ In e (g_es g);
    w_rd : forall r, r_ph (d_rd st r) <> PIdle -> pubpt st (r_s (d_rd st r));
    w_rlog : forall r s h0 k a, In (r, s, h0, k, a) (d_rlog st) -> pubpt st s
  }.

  Lemma inv2_init : inv2 init.
  Proof.
    constructor; unfold init, pubpt; sim.
    - reflexivity.
    - reflexivity.
    - intros g e [].
    - intros e [].
    - intros e [].
    - intros r H. exfalso. apply H. reflexivity.
    - intros r s h0 k a [].
  Qed.

  Lemma glchain_bound t gl : glchain t gl -> forall g, In g gl -> g_lo g < g_hi g /\ g_hi g <= t.
  Proof.
    revert t. induction gl as [|g0 gl IH]; intros t H g Hg; [destruct Hg|].
    cbn [glchain] in H. destruct H as [A [B C]]. destruct Hg as [<-|Hg]; [lia|].
    destruct (IH _ C g Hg). lia.
  Qed.

  (* a published value of db.seq never falls strictly inside a group *)
  Lemma glchain_sep t gl s : glchain t gl -> (s = 0 \/ exists g, In g gl /\ g_hi g = s) ->
    forall g, In g gl -> g_hi g <= s \/ s <= g_lo g.
  Proof.
    revert t. induction gl as [|g0 gl IH]; intros t H Hs g Hg; [destruct Hg|].
    cbn [glchain] in H. destruct H as [A [B C]].
    destruct Hs as [->|[g1 [Hg1 E]]]; [right; lia|].
    destruct Hg as [<-|Hg].
    - destruct Hg1 as [<-|Hg1]; [left; lia|]. destruct (glchain_bound _ _ C g1 Hg1). right. lia.
    - destruct Hg1 as [<-|Hg1].
      + destruct (glchain_bound _ _ C g Hg). left. lia.
      + apply (IH _ C); [right; exists g1; split; assumption|exact Hg].
  Qed.

  (* older groups end where newer ones begin *)
  Lemma glchain_order t gl1 g2 gl2 g1 : glchain t (gl1 ++ g2 :: gl2) -> In g1 gl2 -> g_hi g1 <= g_lo g2.
  Proof.
    revert t. induction gl1 as [|g0 gl1 IH]; intros t H Hg; cbn [app glchain] in H.
    - destruct H as [_ [_ C]]. destruct (glchain_bound _ _ C g1 Hg). lia.
    - destruct H as [_ [_ C]]. apply (IH _ C Hg).
  Qed.

  Lemma pubpt_mono st st' s : (forall g, In g (d_glog st) -> In g (d_glog st')) -> pubpt st s -> pubpt st' s.
  Proof. intros H [->|[g [Hg E]]]; [left; reflexivity|right; exists g; split; [apply H; exact Hg|exact E]]. Qed.

  Lemma pubpt_seq st : inv2 st -> pubpt st (d_seq st).
  Proof.
    intros W. pose proof (w_chain st W) as C. destruct (d_glog st) as [|g gl] eqn:G; unfold pubpt; rewrite G.
    - left. exact C.
    - right. exists g. split; [left; reflexivity|]. destruct C as [A _]. exact A.
  Qed.

  (* steps that leave the writer side, the history, the readers' sequence numbers and the read log alone *)
  Lemma inv2_same st st' : inv2 st ->
    d_pend st' = d_pend st -> d_wn st' = d_wn st -> d_tn st' = d_tn st -> d_seq st' = d_seq st ->
    d_glog st' = d_glog st -> d_hist st' = d_hist st -> d_rlog st' = d_rlog st ->
    (forall r, r_ph (d_rd st' r) <> PIdle -> r_ph (d_rd st r) <> PIdle /\ r_s (d_rd st' r) = r_s (d_rd st r)) ->
    inv2 st'.
  Proof.
    intros W E1 E2 E3 E4 E5 E6 E7 E8. destruct W as [A B C D E F G].
    constructor; unfold pubpt in *; rewrite ?E1, ?E2, ?E3, ?E4, ?E5, ?E6, ?E7; try assumption.
    intros r P. destruct (E8 r P) as [P' ->]. apply F. exact P'.
  Qed.

  Lemma inv2_pub st s' : inv st -> inv2 st -> d_seq st < s' -> s' = top st ->
    inv2 (with_publish st s' (d_seq st, s', d_pend st)).
  Proof.
    intros I W Hlt Ht. unfold top in Ht.
    assert (Mono : forall s, pubpt st s -> pubpt (with_publish st s' (d_seq st, s', d_pend st)) s).
    { intros s. apply pubpt_mono. sim. intros g Hg. right. exact Hg. }
    constructor; sim.
    - reflexivity.
    - cbn [glchain g_hi g_lo fst snd]. split; [reflexivity|]. split; [exact Hlt|apply (w_chain st W)].
    - intros g e [<-|Hg] He.
      + cbn [g_es g_lo g_hi fst snd] in *. destruct (w_pend st W e He) as [A B]. split; [exact A|].
        pose proof (i_hist st I e A). unfold top in *. lia.
      + apply (w_groups st W g e Hg He).
    - intros e [].
    - intros e He. right. destruct (w_cover st W e He) as [Hp|[g [Hg Hin]]].
      + eexists. split; [left; reflexivity|exact Hp].
      + exists g. split; [right; exact Hg|exact Hin].
    - intros r P. apply Mono. apply (w_rd st W r P).
    - intros r s h0 k a Hin. apply Mono. apply (w_rlog st W r s h0 k a Hin).
  Qed.

  Lemma inv2_reader st r x snaps rlog : inv2 st ->
    (r_ph x <> PIdle -> pubpt st (r_s x)) ->
    (forall r' s h0 k a, In (r', s, h0, k, a) rlog -> pubpt st s) ->
    inv2 (with_reader st r x snaps rlog).
  Proof.
    intros W Hx Hl. destruct W as [A B C D E F G]. constructor; unfold pubpt in *; sim; try assumption.
    intros r'. unfold upd. destruct (Nat.eqb_spec r' r) as [->|N]; [exact Hx|apply F].
  Qed.

  Lemma inv2_step st a st' : inv st -> inv2 st -> step st a = Some st' -> inv2 st'.
  Proof.
    intros I W H. destruct a.
    - apply step_ins in H as [Ht [He ->]]. constructor; unfold pubpt; sim.
      + rewrite app_length. cbn [length]. pose proof (w_len st W). lia.
      + apply (w_chain st W).
      + intros g x Hg Hx. destruct (w_groups st W g x Hg Hx) as [A B]. split; [apply in_or_app; left; exact A|exact B].
      + intros x Hx. apply in_app_or in Hx as [Hx|[<-|[]]].
        * destruct (w_pend st W x Hx) as [A B]. split; [apply in_or_app; left; exact A|exact B].
        * split; [apply in_or_app; right; left; reflexivity|lia].
      + intros x Hx. apply in_app_or in Hx as [Hx|[<-|[]]].
        * destruct (w_cover st W x Hx) as [A|A]; [left; apply in_or_app; left; exact A|right; exact A].
        * left. apply in_or_app. right. left. reflexivity.
      + apply (w_rd st W).
      + apply (w_rlog st W).
    - apply step_publish in H as [Hn [Hp [Ht ->]]]. apply inv2_pub; [exact I|exact W|lia|unfold top; lia].
    - apply step_rotate in H as [_ [_ [_ ->]]]. apply (inv2_same st); sim; auto.
    - apply step_install in H as [f [_ [_ ->]]]. apply (inv2_same st); sim; auto.
    - apply step_drop in H as [f [_ [_ ->]]]. apply (inv2_same st); sim; auto.
    - apply step_rewrite in H as [_ ->]. apply (inv2_same st); sim; auto.
    - apply step_txn in H as [Hw [Ht [Hm [F [Hes ->]]]]].
      assert (Pn : d_pend st = []).
      { pose proof (w_len st W) as L. destruct (d_pend st); [reflexivity|]. cbn [length] in L. lia. }
      constructor; unfold pubpt; sim.
      + lia.
      + apply (w_chain st W).
      + intros g x Hg Hx. destruct (w_groups st W g x Hg Hx) as [A B]. split; [apply in_or_app; left; exact A|exact B].
      + intros x Hx. split; [apply in_or_app; right; exact Hx|]. specialize (Hes x Hx). lia.
      + intros x Hx. apply in_app_or in Hx as [Hx|Hx]; [|left; exact Hx].
        destruct (w_cover st W x Hx) as [A|A]; [rewrite Pn in A; destruct A|right; exact A].
      + apply (w_rd st W).
      + apply (w_rlog st W).
    - apply step_setseq in H as [Hp [Hs [Hw ->]]]. apply inv2_pub; [exact I|exact W|lia|unfold top; lia].
    - apply step_rseq in H as [P [-> ->]]. apply inv2_reader; [exact W| |apply (w_rlog st W)].
      sim. intros _. apply pubpt_seq. exact W.
    - apply step_rmems in H as [P [Rg ->]]. apply inv2_reader; [exact W| |apply (w_rlog st W)].
      sim. intros _. apply (w_rd st W). exact P.
    - apply step_rversion in H as [P ->]. apply inv2_reader; [exact W| |apply (w_rlog st W)].
      sim. intros _. apply (w_rd st W). rewrite P; discriminate.
    - apply step_rlookup in H as [a0 [Pa [_ ->]]].
      assert (Pp : pubpt st (r_s (d_rd st r))).
      { apply (w_rd st W). destruct Pa as [[P _]|[P _]]; rewrite P; discriminate. }
      apply inv2_reader; [exact W|intros _; exact Pp|].
      intros r' s h0 k' a [E|Hin]; [injection E as _ <- _ _ _; exact Pp|apply (w_rlog st W r' s h0 k' a Hin)].
    - apply step_rrelease in H as [Pn [x' [_ [_ [_ [_ [Es [_ [_ ->]]]]]]]]]. apply inv2_reader; [exact W| |apply (w_rlog st W)].
      intros _. rewrite Es. apply (w_rd st W). exact Pn.
    - apply step_rdone in H as ->. apply inv2_reader; [exact W| |apply (w_rlog st W)].
      sim. intros N. exfalso. apply N. reflexivity.
  Qed.

  Lemma inv12_run tr : forall st st', inv st -> inv2 st -> run st tr = Some st' -> inv st' /\ inv2 st'.
  Proof.
    induction tr as [|a tr IH]; intros st st' I W H; cbn [ReadCut.run] in H.
    - injection H as <-. split; assumption.
    - destruct (step st a) as [st1|] eqn:S; [|discriminate].
      apply (IH st1); [eapply inv_step; eauto|eapply inv2_step; eauto|exact H].
  Qed.

  Lemma seq_mono_step st a st' : step st a = Some st' -> d_seq st <= d_seq st'.
  Proof.
    intros H. destruct a.
    - apply step_ins in H as [_ [_ ->]]; sim; lia.
    - apply step_publish in H as [_ [_ [_ ->]]]; sim; lia.
    - apply step_rotate in H as [_ [_ [_ ->]]]; sim; lia.
    - apply step_install in H as [f [_ [_ ->]]]; sim; lia.
    - apply step_drop in H as [f [_ [_ ->]]]; sim; lia.
    - apply step_rewrite in H as [_ ->]; sim; lia.
    - apply step_txn in H as [_ [_ [_ [_ [_ ->]]]]]; sim; lia.
    - apply step_setseq in H as [? [? [? ->]]]; sim; lia.
    - apply step_rseq in H as [_ [_ ->]]; sim; lia.
    - apply step_rmems in H as [_ [_ ->]]; sim; lia.
    - apply step_rversion in H as [_ ->]; sim; lia.
    - apply step_rlookup in H as [a0 [_ [_ ->]]]; sim; lia.
    - apply step_rrelease in H as [_ [x' [_ [_ [_ [_ [_ [_ [_ ->]]]]]]]]]; sim; lia.
    - apply step_rdone in H as ->; sim; lia.
  Qed.

  Lemma seq_mono_run tr : forall st st', run st tr = Some st' -> d_seq st <= d_seq st'.
  Proof.
    induction tr as [|a tr IH]; intros st st' H; cbn [ReadCut.run] in H.
    - injection H as <-. lia.
    - destruct (step st a) as [st1|] eqn:S; [|discriminate].
      pose proof (seq_mono_step _ _ _ S). specialize (IH _ _ H). lia.
  Qed.

  Lemma run_app tr1 : forall st tr2, run st (tr1 ++ tr2) =
    match run st tr1 with Some st1 => run st1 tr2 | None => None end.
  Proof.
    induction tr1 as [|a tr1 IH]; intros st tr2; cbn [app ReadCut.run]; [reflexivity|].
    destruct (step st a); [apply IH|reflexivity].
  Qed.

  Definition all_vis (s : N) (es : list entry) : Prop := forall e, In e es -> e_seq e <= s.
  Definition none_vis (s : N) (es : list entry) : Prop := forall e, In e es -> s < e_seq e.

  (* publications are the linearisation points of writes *)
  Theorem writes_linearize tr st : run init tr = Some st ->
    (* (1) the published groups tile (0, db.seq]; each lies wholly inside its own range; every entry ever
           written is in exactly the pending group or in a published one *)
    (glchain (d_seq st) (d_glog st) /\
     (forall g e, In g (d_glog st) -> In e (g_es g) -> In e (d_hist st) /\ g_lo g < e_seq e <= g_hi g) /\
     (forall e, In e (d_pend st) -> In e (d_hist st) /\ d_seq st < e_seq e) /\
     (forall e, In e (d_hist st) -> In e (d_pend st) \/ exists g, In g (d_glog st) /\ In e (g_es g))) /\
    (* (2) batch atomicity: a reader in flight, and every answered read, sees each published group entirely or
           not at all, and nothing of the group in progress *)
    (forall r, r_ph (d_rd st r) <> PIdle ->
       (forall g, In g (d_glog st) -> all_vis (r_s (d_rd st r)) (g_es g) \/ none_vis (r_s (d_rd st r)) (g_es g)) /\
       none_vis (r_s (d_rd st r)) (d_pend st)) /\
    (forall r s h0 k a, In (r, s, h0, k, a) (d_rlog st) ->
       (forall g, In g (d_glog st) -> all_vis s (g_es g) \/ none_vis s (g_es g)) /\ none_vis s (d_pend st)) /\
    (* (3) publication order: whoever sees a group sees every group published before it *)
    (forall gl1 g2 gl2 g1 s, d_glog st = gl1 ++ g2 :: gl2 -> In g1 gl2 ->
       (exists e, In e (g_es g2) /\ e_seq e <= s) -> all_vis s (g_es g1)) /\
    (* (4) real time: a reader that fixes its sequence number now sees every group published so far *)
    (forall r s st', step st (ARSeq r s) = Some st' ->
       s = d_seq st /\ forall g, In g (d_glog st) -> all_vis s (g_es g)) /\
    (* (5) later readers never go back: db.seq only grows *)
    (forall tr' st', run st tr' = Some st' -> d_seq st <= d_seq st').
  Proof.
    intros H. destruct (inv12_run tr init st inv_init inv2_init H) as [I W].
    assert (Sep : forall s, pubpt st s -> s <= d_seq st ->
              (forall g, In g (d_glog st) -> all_vis s (g_es g) \/ none_vis s (g_es g)) /\ none_vis s (d_pend st)).
    { intros s Ps Sle. split.
      - intros g Hg. destruct (glchain_sep _ _ s (w_chain st W) Ps g Hg) as [A|A].
        + left. intros e He. destruct (w_groups st W g e Hg He) as [_ B]. lia.
        + right. intros e He. destruct (w_groups st W g e Hg He) as [_ B]. lia.
      - intros e He. destruct (w_pend st W e He). lia. }
    split; [|split; [|split; [|split; [|split]]]].
    - split; [apply (w_chain st W)|]. split; [apply (w_groups st W)|]. split; [apply (w_pend st W)|apply (w_cover st W)].
    - intros r P. apply Sep; [apply (w_rd st W r P)|]. apply (ri_base _ _ _ (i_rd st I r) P).
    - intros r s h0 k a Hin. apply Sep; [apply (w_rlog st W r s h0 k a Hin)|].
      apply (i_rlog st I r s h0 k a Hin).
    - intros gl1 g2 gl2 g1 s E Hg1 [e [He Hs]] x Hx.
      pose proof (w_chain st W) as C. rewrite E in C. pose proof (glchain_order _ _ _ _ _ C Hg1) as O.
      assert (In g2 (d_glog st)) as Hg2 by (rewrite E; apply in_or_app; right; left; reflexivity).
      assert (In g1 (d_glog st)) as Hg1' by (rewrite E; apply in_or_app; right; right; exact Hg1).
      destruct (w_groups st W g2 e Hg2 He) as [_ B2]. destruct (w_groups st W g1 x Hg1' Hx) as [_ B1]. lia.
    - intros r s st' S. apply step_rseq in S as [_ [-> _]]. split; [reflexivity|].
      intros g Hg e He. destruct (w_groups st W g e Hg He) as [_ B].
      destruct (glchain_bound _ _ (w_chain st W) g Hg). lia.
    - intros tr' st' R. apply (seq_mono_run tr' st st' R).
  Qed.

  (* a client's successive reads: the second ARSeq never fixes a smaller sequence number *)
  Theorem reads_monotone tr1 r1 s1 tr2 r2 s2 tr3 st :
    run init (tr1 ++ ARSeq r1 s1 :: tr2 ++ ARSeq r2 s2 :: tr3) = Some st -> s1 <= s2.
  Proof.
    rewrite run_app. destruct (run init tr1) as [st1|] eqn:R1; [|discriminate]. cbn [ReadCut.run].
    destruct (step st1 (ARSeq r1 s1)) as [st2|] eqn:S1; [|discriminate].
    rewrite run_app. destruct (run st2 tr2) as [st3|] eqn:R2; [|discriminate]. cbn [ReadCut.run].
    destruct (step st3 (ARSeq r2 s2)) as [st4|] eqn:S2; [|discriminate]. intros _.
    apply step_rseq in S1 as [_ [-> E1]]. apply step_rseq in S2 as [_ [-> _]].
    pose proof (seq_mono_run _ _ _ R2). subst st2. sim. exact H.
  Qed.

  (* the (s, h0) of a read are db.seq and the history in the state before some ARSeq r s of the trace *)
  Definition origin (tr : list action) (r : nat) (s : N) (h0 : list entry) : Prop :=
    exists tr1 tr2 st1, tr = tr1 ++ ARSeq r s :: tr2 /\ run init tr1 = Some st1 /\ d_seq st1 = s /\ d_hist st1 = h0.

  Lemma origin_snoc tr a r s h0 : origin tr r s h0 -> origin (tr ++ [a]) r s h0.
  Proof.
    intros [tr1 [tr2 [st1 [E R]]]]. exists tr1, (tr2 ++ [a]), st1. split; [|exact R].
    rewrite E, <- app_assoc. reflexivity.
  Qed.

  (* the invariant, indexed by the trace so far, behind read_instant *)
  Definition oinv (tr : list action) (st : state) : Prop :=
    (forall r, r_ph (d_rd st r) <> PIdle -> origin tr r (r_s (d_rd st r)) (r_h0 (d_rd st r))) /\
    (forall r s h0 k a, In (r, s, h0, k, a) (d_rlog st) -> origin tr r s h0).

  Lemma oinv_same tr a st st' : oinv tr st -> d_rd st' = d_rd st -> d_rlog st' = d_rlog st -> oinv (tr ++ [a]) st'.
  Proof.
    intros [A B] E1 E2. split; rewrite ?E1, ?E2.
    - intros r P. apply origin_snoc. apply A. exact P.
    - intros r s h0 k x Hin. apply origin_snoc. apply (B r s h0 k x Hin).
  Qed.

  Lemma oinv_reader tr a st r x snaps rlog : oinv tr st ->
    (r_ph x <> PIdle -> origin (tr ++ [a]) r (r_s x) (r_h0 x)) ->
    (forall r' s h0 k y, In (r', s, h0, k, y) rlog -> origin (tr ++ [a]) r' s h0) ->
    oinv (tr ++ [a]) (with_reader st r x snaps rlog).
  Proof.
    intros [A B] Hx Hl. split; sim; [|exact Hl].
    intros r'. unfold upd. destruct (Nat.eqb_spec r' r) as [->|N]; [exact Hx|].
    intros P. apply origin_snoc. apply A. exact P.
  Qed.

  Lemma oinv_step tr st a st' : run init tr = Some st -> oinv tr st -> step st a = Some st' -> oinv (tr ++ [a]) st'.
  Proof.
    intros R O H. pose proof O as [OA OB].
    assert (Keep : forall r' s h0 k y, In (r', s, h0, k, y) (d_rlog st) -> origin (tr ++ [a]) r' s h0).
    { intros r' s h0 k y Hin. apply origin_snoc. apply (OB r' s h0 k y Hin). }
    destruct a.
    - apply step_ins in H as [_ [_ ->]]. apply (oinv_same tr _ st); auto.
    - apply step_publish in H as [_ [_ [_ ->]]]. apply (oinv_same tr _ st); auto.
    - apply step_rotate in H as [_ [_ [_ ->]]]. apply (oinv_same tr _ st); auto.
    - apply step_install in H as [f [_ [_ ->]]]. apply (oinv_same tr _ st); auto.
    - apply step_drop in H as [f [_ [_ ->]]]. apply (oinv_same tr _ st); auto.
    - apply step_rewrite in H as [_ ->]. apply (oinv_same tr _ st); auto.
    - apply step_txn in H as [_ [_ [_ [_ [_ ->]]]]]. apply (oinv_same tr _ st); auto.
    - apply step_setseq in H as [_ [_ [_ ->]]]. apply (oinv_same tr _ st); auto.
    - apply step_rseq in H as [P [-> ->]]. apply oinv_reader; [exact O| |exact Keep].
      sim. intros _. exists tr, [], st. auto.
    - apply step_rmems in H as [P [Rg ->]]. apply oinv_reader; [exact O| |exact Keep].
      sim. intros _. apply origin_snoc. apply OA. exact P.
    - apply step_rversion in H as [P ->]. apply oinv_reader; [exact O| |exact Keep].
      sim. intros _. apply origin_snoc. apply OA. rewrite P; discriminate.
    - apply step_rlookup in H as [a0 [Pa [_ ->]]].
      assert (Or : origin (tr ++ [ARLookup r k ans]) r (r_s (d_rd st r)) (r_h0 (d_rd st r))).
      { apply origin_snoc. apply OA. destruct Pa as [[P _]|[P _]]; rewrite P; discriminate. }
      apply oinv_reader; [exact O|intros _; exact Or|].
      intros r' s h0 k' y [E|Hin]; [injection E as <- <- <- _ _; exact Or|apply (Keep r' s h0 k' y Hin)].
    - apply step_rrelease in H as [Pn [x' [_ [_ [_ [_ [Es [Eh [_ ->]]]]]]]]]. apply oinv_reader; [exact O| |exact Keep].
      intros _. rewrite Es, Eh. apply origin_snoc. apply OA. exact Pn.
    - apply step_rdone in H as ->. apply oinv_reader; [exact O| |exact Keep].
      sim. intros N. exfalso. apply N. reflexivity.
  Qed.

  Lemma run_snoc tr a st : run st (tr ++ [a]) = match run st tr with Some st1 => step st1 a | None => None end.
  Proof.
    rewrite run_app. destruct (run st tr) as [st1|]; [|reflexivity]. cbn [ReadCut.run].
    destruct (step st1 a); reflexivity.
  Qed.

  Theorem read_instant tr : forall st, run init tr = Some st ->
    forall r s h0 k a, In (r, s, h0, k, a) (d_rlog st) ->
    exists tr1 tr2 st1, tr = tr1 ++ ARSeq r s :: tr2 /\ run init tr1 = Some st1 /\ d_seq st1 = s /\ d_hist st1 = h0.
  Proof.
    assert (forall st, run init tr = Some st -> oinv tr st) as K.
    { induction tr as [|a tr IH] using rev_ind; intros st R.
      - cbn in R. injection R as <-. split; unfold init; sim.
        + intros r N. exfalso. apply N. reflexivity.
        + intros r s h0 k a [].
      - rewrite run_snoc in R. destruct (run init tr) as [st1|] eqn:R1; [|discriminate].
        apply (oinv_step tr st1 a st R1 (IH st1 eq_refl) R). }
    intros st R r s h0 k a Hin. destruct (K st R) as [_ B]. apply (B r s h0 k a Hin).
  Qed.

  Lemma opt_bytes_eqb_refl a : opt_bytes_eqb a a = true.
  Proof. destruct a; cbn; [apply beq_eq; reflexivity|reflexivity]. Qed.

  (* the executable violation test never fires on the LTS *)
  Theorem no_violation tr st : run init tr = Some st -> violation c p st = false.
  Proof.
    intros H. unfold violation. destruct (existsb (wrong_read c p st) (d_rlog st)) eqn:E; [|reflexivity].
    apply existsb_exists in E as [[[[[r s] h0] k] a] [Hin W]]. unfold wrong_read in W.
    destruct (read_cut tr st H r s h0 k a Hin) as [A _]. rewrite <- A, opt_bytes_eqb_refl in W. discriminate.
  Qed.

  (* the alternative LTS is the same system: it differs from `step` only in the two actions of the reversed pair *)
  Lemma stepv_agrees v st a :
    match v, a with
    | VReaderVersionFirst, (ARVersion _ | ARMems _) => True
    | VDropBeforeInstall, (ADropFrozen | AInstallTable _) => True
    | VPublishBeforeInsert, (APublish _ _ | AIns _ _) => True
    | VSetSeqBeforeInstall, (ASetSeq _ _ | ATxnInstall _ _) => True
    | _, _ => stepv c p v st a = step st a
    end.
  Proof. destruct v, a; try exact I; reflexivity. Qed.
End Proofs.

(* witnesses for order_matters *)
Definition ex_e (k s v : N) : entry := {| e_uk := [k]; e_seq := s; e_kind := keyTypeVal kp; e_val := [v] |}.

(* the reader takes the version, a flush installs and drops, then the reader takes the buffers: the entry is in
   neither capture *)
Definition tr_reader_swapped : list action :=
  [AIns 0 (ex_e 1 1 10); APublish 0 1; ARSeq 7 1; ARVersion 7; ARotate 0; AInstallTable [ex_e 1 1 10]; ADropFrozen;
   ARMems 7; ARLookup 7 [1] None].

(* the flusher drops the frozen memdb, a reader runs, then the table is installed *)
Definition tr_drop_first : list action :=
  [AIns 0 (ex_e 1 1 10); APublish 0 1; ARotate 0; ADropFrozen; ARSeq 7 1; ARMems 7; ARVersion 7; ARLookup 7 [1] None;
   AInstallTable [ex_e 1 1 10]].

(* db.seq advanced before the group is in the memdb: the reader sees half of a two-key batch *)
Definition tr_publish_first : list action :=
  [APublish 0 2; AIns 0 (ex_e 1 1 10); ARSeq 7 2; ARMems 7; ARVersion 7; ARLookup 7 [1] (Some [10]); ARLookup 7 [2] None;
   AIns 0 (ex_e 2 2 10)].

(* db.seq set before the transaction's tables are in the version *)
Definition tr_setseq_first : list action :=
  [ASetSeq 0 1; ARSeq 7 1; ARMems 7; ARVersion 7; ARLookup 7 [1] None; ATxnInstall 0 [ex_e 1 1 10]].

Definition violates (v : variant) (tr : list action) : bool :=
  match runv bytewise kp v init tr with Some st => violation bytewise kp st | None => false end.

Lemma order_matters_witnesses :
  violates VReaderVersionFirst tr_reader_swapped = true /\
  violates VDropBeforeInstall tr_drop_first = true /\
  violates VPublishBeforeInsert tr_publish_first = true /\
  violates VSetSeqBeforeInstall tr_setseq_first = true /\
  (* and the LTS of the code refuses each of these traces: this is what the trace-inclusion check detects *)
  accepts bytewise kp tr_reader_swapped = false /\ accepts bytewise kp tr_drop_first = false /\
  accepts bytewise kp tr_publish_first = false /\ accepts bytewise kp tr_setseq_first = false.
Proof. vm_compute. repeat split. Qed.

Theorem order_matters :
  (exists tr st, runv bytewise kp VReaderVersionFirst init tr = Some st /\ violation bytewise kp st = true) /\
  (exists tr st, runv bytewise kp VDropBeforeInstall init tr = Some st /\ violation bytewise kp st = true) /\
  (exists tr st, runv bytewise kp VPublishBeforeInsert init tr = Some st /\ violation bytewise kp st = true) /\
  (exists tr st, runv bytewise kp VSetSeqBeforeInstall init tr = Some st /\ violation bytewise kp st = true).
Proof.
  assert (K : forall v tr, violates v tr = true ->
            exists tr st, runv bytewise kp v init tr = Some st /\ violation bytewise kp st = true).
  { intros v tr H. unfold violates in H. destruct (runv bytewise kp v init tr) as [st|] eqn:R; [|discriminate].
    exists tr, st. split; [exact R|exact H]. }
  destruct order_matters_witnesses as [A [B [C [D _]]]].
  split; [|split; [|split]]; eapply K; eassumption.
Qed.

(* non-vacuity of read_cut: the reader's three steps separated by a rotation, by the flush's install and by the
   drop, in three different ways; every trace is accepted and the answers are the published value *)
Definition tr_good1 : list action :=
  [AIns 0 (ex_e 1 1 10); APublish 0 1; ARSeq 7 1; ARotate 0; ARMems 7; AInstallTable [ex_e 1 1 10]; ADropFrozen;
   ARVersion 7; ARLookup 7 [1] (Some [10]); ARRelease 7; ARDone 7].
Definition tr_good2 : list action :=
  [AIns 0 (ex_e 1 1 10); APublish 0 1; ARSeq 7 1; ARMems 7; ARotate 0; AInstallTable [ex_e 1 1 10]; ADropFrozen;
   AIns 1 (ex_e 1 2 20); ARVersion 7; APublish 1 1; ARLookup 7 [1] (Some [10]); ARRelease 7; ARDone 7].
Definition tr_good3 : list action :=
  [AIns 0 (ex_e 1 1 10); AIns 0 (ex_e 2 2 10); APublish 0 2; ARotate 0; ARSeq 7 2; AInstallTable [ex_e 2 2 10; ex_e 1 1 10];
   ARMems 7; ADropFrozen; ATxnInstall 3 [ex_e 1 3 30]; ARVersion 7; ASetSeq 3 3; ARRelease 7;
   AInstallRewrite 3 [ex_e 2 2 10; ex_e 1 3 30];
   ARLookup 7 [1] (Some [10]); ARLookup 7 [2] (Some [10]); ARDone 7;
   ARSeq 8 3; ARMems 8; ARVersion 8; ARLookup 8 [1] (Some [30]); ARLookup 8 [2] (Some [10]); ARRelease 8; ARDone 8].

Lemma good_traces_accepted :
  accepts bytewise kp tr_good1 = true /\ accepts bytewise kp tr_good2 = true /\ accepts bytewise kp tr_good3 = true.
Proof. vm_compute. repeat split. Qed.
