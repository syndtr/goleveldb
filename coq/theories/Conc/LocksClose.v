(* Conc/LocksClose.v — Close terminates: a progress measure for the closing phase of Conc/Locks.v.

   Once closeC is closed every select of the code that lists closeC can take that case.  Go chooses among the
   ready cases of a select at random, so a run in which some select keeps taking another ready case for ever
   (e.g. flush: the write-delay loop keeps sending its command to tCompaction, which keeps accepting it)
   exists in the model and in the code, with probability 0.  What is proved here is the measure-based core:

     GOOD steps  = steps that are not new calls (no edge out of Idle or IdleTr: in particular no help from the
                   owner of a Transaction handle) and in which a goroutine standing at a select that lists
                   closeC takes the closeC case (compactionError: its closeC case);
     measure     = weighted sum of the distances of all goroutines to their exits + length of tCompaction's queue.

     good_step_decreases   every good step of a reachable state with closeC closed decreases the measure;
     close_bounded   hence a run of good steps from s has at most [measure N s] steps;
     (Conc/LocksLate.v, with the invariant invK that rests on repair fb021ae:)
     good_enabled    as long as some client is inside a call a good step is enabled;
     close_complete  in a reachable state with closeC closed in which no good step is enabled every client is
                     Idle or IdleTr: Close has returned, and so has every other call.

   Outside: fairness of the Go scheduler (that enabled steps are eventually taken), the random choice of select
   (that the closeC case is eventually taken), wall-clock time.

   At the end: the schedule on which the code before repair fb021ae leaves Close waiting for the owner of a
   Transaction handle ([late_transaction_refuted]). *)
From GL Require Import Conc.Locks Conc.LocksProofs Conc.LocksDeadlock Conc.LocksInv Conc.LocksInvBg Conc.LocksInvAll.
From Coq Require Import Lia.

(* The ranks.  Nothing depends on the numbers beyond the three checks cedges_close_ok / medges_close_ok /
   tedges_close_ok: every edge that can be taken once closeC is closed goes to a smaller rank, and a rendezvous
   lowers the sum of the ranks of the two clients it moves ([c_cond], [m_cond], [t_cond]; e.g. LMergeRecv takes the
   requester from W1 to W2, so it needs crank pc' + crank W2 < crank pc + crank (W1 true)).  After a change to the
   graphs, re-run the checks and raise the ranks upstream of the edge that fails. *)
Definition rk_rot_ok (r : rsite) : nat := match r with RFlush _ => 10 | RPost _ => 3 | RCr => 3 | ROt _ => 19 end.
Definition rk_rot_err (r : rsite) : nat := match r with RFlush _ | RPost _ => 3 | RCr => 2 | ROt _ => 3 end.
Definition rk_rot2 (r : rsite) : nat := if rot_waits r then S (S (rk_rot_err r)) else S (rk_rot_ok r).
Definition rk_rot1 (r : rsite) : nat := S (Nat.max (rk_rot2 r) (S (rk_rot_err r))).
Definition rk_ok (s : tsite) : nat :=
  match s with
  | SRot0 r => rk_rot1 r | SRot2 r => rk_rot_ok r | SFlushPause _ => 11 | SOtFrozen _ => 19 | SOtWc _ => 18
  | SCmWc _ => 4 | SCrM => 2 | SCrT => 1
  end.
Definition rk_err (s : tsite) : nat :=
  match s with
  | SRot0 r | SRot2 r => rk_rot_err r | SFlushPause _ => 3 | SOtFrozen _ | SOtWc _ => 3 | SCmWc _ => 4
  | SCrM | SCrT => 1
  end.

Definition crank (pc : cpc) : nat :=
  match pc with
  | Idle => 0 | Ret => 1 | IdleTr => 0 | RetTr => 1 | G0 => 2
  | W0 _ | WB _ => 2 | LBa => 4 | W1 _ => 14 | W2 => 11 | W3 => 2
  | WF _ => 11 | WM _ => 10 | WMs _ => 12 | WJ _ => 6 | WR _ => 5 | WU _ => 3
  | TrigS _ s => S (rk_err s) | TrigW _ s => S (Nat.max (rk_ok s) (rk_err s))
  | Rot1 r => rk_rot1 r | Rot2 r => rk_rot2 r
  | OT0 _ => 3 | OT1 _ => 3 | OT2 _ => 20 | OT3 _ => 19 | OT4 _ => 18 | OT5 _ => 17 | OTE _ => 3 | OTfail _ => 2
  | OT4b _ => 7 | OT6 _ => 6 | OT7 _ => 5 | OT7d _ => 4 | OT8 _ => 3
  | LB1 => 16 | LB2 => 15 | LB3 _ => 14 | LB4 => 13 | LB5 => 10
  | CM0 _ => 12 | CM1 _ => 19 | CM2 _ => 18 | CM3 _ => 17 | CM4 _ => 16 | CM5 _ _ => 15 | CM6 _ _ => 14
  | CM6c _ => 13 | CM5f _ => 13 | CM7 _ => 8 | CM8 _ => 7 | CM8b _ => 6 | CM9 _ => 4 | CM10 _ => 3
  | CMok _ => 2 | CMFu _ => 12 | CMF _ => 11
  | DC0 _ => 9 | DC1 _ => 8 | DC2 _ => 7 | DC3 _ => 6 | DC4 _ => 5
  | TP1 => 3 | TP2 => 2 | TP3 => 1
  | CR0 => 2 | CR1 => 2 | CR2 => 4 | CR3 => 3 | CR3e => 2 | CR6 => 3
  | RO0 => 2 | RO1 => 2 | RO2 => 3 | RO3 => 2
  | CL0 => 2 | CL1 => 13 | CL2 => 12 | CL3 => 11 | CL3b => 10 | CL4 => 4 | CL5 => 3 | CL6 => 2
  end.

Definition mrank (pc : mpc) : nat :=
  match pc with
  | MDone => 0 | MX => 1 | MXu => 2 | M0 => 2 | MAck => 3 | MG => 4 | MF _ => 5 | ME _ => 6 | MDs _ _ => 7
  | MD1 _ => 8 | MD _ => 9 | MC _ => 10 | MBs _ _ => 11 | MB1 _ => 12 | MB _ => 13 | MP => 14 | M1 => 15
  end.

Definition trank (pc : tpc) : nat :=
  match pc with
  | TDone => 0 | TX => 1 | TXu => 2 | T1 | T2 | TP _ => 2 | TQ KT2 => 3 | T2a => 4 | T0 => 5
  | TBs _ _ | TB1 _ | TB _ => 2 | TDs _ _ => 3 | TD1 _ => 4 | TD _ => 3 | TC _ => 4
  | T4 => 6 | TAx KT4 => 7 | T3r => 8 | TE _ => 9 | T3 XNo => 7 | T3 XAck => 8 | T3 XRange => 9
  | TQ KT4 => 8 | T1b => 9 | TQ KT0 => 6 | TQ (KTB1 _) => 3 | TAx KT0 => 6 | TAx KT2 => 3 | TAx (KTB1 _) => 3
  end.

Definition cerank (c : epc) : nat := match c with E_done => 0 | _ => 1 end.

Definition is_sc (l : lbl) : bool := match l with LSeeClosed => true | _ => false end.
Definition has_close {P} (es : list (lbl * P)) : bool := existsb (fun e => is_sc (fst e)) es.
(* the k-th edge may be taken by a goroutine that prefers its closeC case *)
Definition takes_close {P} (es : list (lbl * P)) (k : nat) : bool :=
  if has_close es then match nth_error es k with Some (l, _) => is_sc l | None => false end else true.

Definition good_cli (pc : cpc) (k : nat) : bool :=
  match pc with Idle | IdleTr => false | _ => true end.

Definition good (s : state) (a : action) : bool :=
  match a with
  | ACli i k _ => good_cli (cli s i) k && takes_close (cedges fixed (cli s i)) k
  | AM k => takes_close (medges (mc s)) k
  | AT k => takes_close (tedges (tc s)) k
  | ACE k => Nat.eqb k 1
  end.

(* what the edge (l, pc') out of pc must satisfy when it is taken with db.closed set *)
Definition c_cond (pc : cpc) (l : lbl) (pc' : cpc) : bool :=
  match l with
  | LIfClosed false | LCasClosed true => true                  (* not enabled *)
  | LSendCmd _ _ => false                                      (* only at a select that lists closeC *)
  | LMergeRecv _ => crank pc' + crank W2 <? crank pc + crank (W1 true)
  | LMergedTrue => crank pc' + crank W3 <? crank pc + crank W2
  | LAckOne => crank pc' + crank Ret <? crank pc + crank W3
  | LGiveW => crank pc' + crank (WF true) <? crank pc + crank W2
  | _ => crank pc' <? crank pc
  end.
Definition c_ok (pc : cpc) (k : nat) (e : lbl * cpc) : bool :=
  let (l, pc') := e in
  if negb (good_cli pc k) || (has_close (cedges fixed pc) && negb (is_sc l)) then true else c_cond pc l pc'.

Fixpoint forall_idx {A} (f : nat -> A -> bool) (k : nat) (l : list A) : bool :=
  match l with [] => true | x :: l' => f k x && forall_idx f (S k) l' end.
Lemma forall_idx_nth : forall {A} (f : nat -> A -> bool) l k0 k x,
  forall_idx f k0 l = true -> nth_error l k = Some x -> f (k0 + k) x = true.
Proof.
  induction l as [| y l IH]; intros k0 k x H N; [destruct k; discriminate|].
  simpl in H. apply andb_prop in H. destruct H as [H1 H2].
  destruct k; simpl in N.
  - inversion N; subst. rewrite Nat.add_0_r. exact H1.
  - replace (k0 + S k) with (S k0 + k) by lia. eapply IH; eauto.
Qed.

Lemma cedges_close_ok : forall pc, forall_idx (c_ok pc) 0 (cedges fixed pc) = true.
Proof. intro pc; destruct pc; dparams; vm_compute; reflexivity. Qed.

Lemma after_ack_rank : forall ok pc, is_trigw_any pc = true -> crank (after_ack ok pc) < crank pc.
Proof. intros ok pc; destruct pc; intro H; try discriminate; dparams; vm_compute; lia. Qed.

Definition m_cond (pc : mpc) (l : lbl) (pc' : mpc) : bool :=
  match l with
  | LIfClosed false => true
  | LSendPause | LRecvResume => false
  | _ => mrank pc' <? mrank pc
  end.
Definition m_ok (pc : mpc) (e : lbl * mpc) : bool :=
  let (l, pc') := e in if has_close (medges pc) && negb (is_sc l) then true else m_cond pc l pc'.
Lemma medges_close_ok : forall pc, forallb (m_ok pc) (medges pc) = true.
Proof. intro pc; destruct pc; dparams; vm_compute; reflexivity. Qed.

Definition t_cond (pc : tpc) (l : lbl) (pc' : tpc) : bool :=
  match l with
  | LIfClosed false => true
  | LEnqueue => S (trank pc') <? trank pc
  | LAckQ _ => trank pc' <=? trank pc
  | _ => trank pc' <? trank pc
  end.
Definition t_ok (pc : tpc) (e : lbl * tpc) : bool :=
  let (l, pc') := e in if has_close (tedges pc) && negb (is_sc l) then true else t_cond pc l pc'.
Lemma tedges_close_ok : forall pc, forallb (t_ok pc) (tedges pc) = true.
Proof. intro pc; destruct pc; dparams; vm_compute; reflexivity. Qed.

Definition bgsame (s s1 : state) : Prop :=
  mc s1 = mc s /\ tc s1 = tc s /\ tq s1 = tq s /\ cerank (ce s1) = cerank (ce s).
Definition acked (ok : bool) (s s1 : state) : Prop :=
  cli s1 = cli s \/ exists j, is_trigw_any (cli s j) = true /\ cli s1 = upd (cli s) j (after_ack ok (cli s j)).

Lemma deliver_acked : forall b ok w s, acked ok s (deliver b ok w s).
Proof.
  intros b ok [i n] s. unfold deliver, acked.
  destruct (is_trigw b (cli s i) && Nat.eqb (ctk s i) n) eqn:E; [| left; reflexivity].
  right. exists i. apply andb_prop in E. destruct E as [E _]. split; [eapply is_trigw_any_of; eauto | reflexivity].
Qed.

Definition lbl_effect (l : lbl) (arg : nat) (s s1 : state) : Prop :=
  match l with
  | LGiveW => exists j, cli s j = W2 /\ cli s1 = upd (cli s) j (WF true) /\ bgsame s s1
  | LMergedTrue => exists j, cli s j = W2 /\ cli s1 = upd (cli s) j W3 /\ bgsame s s1
  | LAckOne => cli s arg = W3 /\ cli s1 = upd (cli s) arg Ret /\ bgsame s s1
  | LMergeRecv _ => cli s arg = W1 true /\ cli s1 = upd (cli s) arg W2 /\ bgsame s s1
  | LSendCmd _ _ | LSendPause | LRecvResume => cli s1 = cli s
  | LTrySendCmd BM => cli s1 = cli s /\ tc s1 = tc s /\ tq s1 = tq s /\ cerank (ce s1) = cerank (ce s) /\
                      (mc s1 = mc s \/ (mc s = M0 /\ mc s1 = M1))
  | LTrySendCmd BT => cli s1 = cli s /\ mc s1 = mc s /\ tq s1 = tq s /\ cerank (ce s1) = cerank (ce s) /\
                      (tc s1 = tc s \/ (t_recv_cmd (tc s) = true /\ tc s1 = T3 XNo))
  | LAck ok => acked ok s s1 /\ bgsame s s1
  | LAckQ ok => acked ok s s1 /\ mc s1 = mc s /\ tc s1 = tc s /\ cerank (ce s1) = cerank (ce s) /\
                exists w, tq s = w :: tq s1
  | LEnqueue => cli s1 = cli s /\ mc s1 = mc s /\ tc s1 = tc s /\ cerank (ce s1) = cerank (ce s) /\
                exists w, tq s1 = tq s ++ [w]
  | _ => cli s1 = cli s /\ bgsame s s1
  end.

Lemma bgsame_refl : forall s, bgsame s s.
Proof. intro s; repeat split; reflexivity. Qed.

Lemma ce_after_rank : forall e c c', ce_after e c = Some c' -> cerank c' = cerank c.
Proof. intros e c c' H; destruct c; simpl in H; try discriminate; inversion H; destruct e; reflexivity. Qed.

Lemma lsem_effect : forall p l arg s s1, lsem fixed p l arg s = Some s1 -> lbl_effect l arg s s1.
Proof.
  intros p l arg s s1 H.
  destruct l; simpl in H; unfold lbl_effect.
  all: try (solve [ destruct p; try discriminate; unfold guard in H;
                    repeat match type of H with context[match ?x with _ => _ end] => destruct x eqn:? end;
                    try discriminate; inversion H; subst;
                    (split; [reflexivity | repeat split; try reflexivity; simpl; dparams; reflexivity]) ]).
  - (* LGiveW *) destruct (pend s) as [j|]; [|discriminate]. apply guard_some in H; destruct H as [G ->].
    apply andb_prop in G. destruct G as [_ G]. apply cpc_is_W2_true in G.
    exists j. repeat split; auto.
  - (* LAckOne *) apply guard_some in H; destruct H as [G ->]. apply andb_prop in G. destruct G as [_ G].
    apply cpc_is_W3_true in G. repeat split; auto.
  - (* LMergeRecv *) apply guard_some in H; destruct H as [G ->]. apply andb_prop in G. destruct G as [G _].
    apply cpc_is_W1m_true in G. repeat split; auto.
  - (* LMergedTrue *) destruct (pend s) as [j|]; [|discriminate]. apply guard_some in H; destruct H as [G ->].
    apply cpc_is_W2_true in G. exists j. repeat split; auto.
  - (* LSendErrSet *) destruct (ce_after e (ce s)) eqn:CA; [|discriminate]. inversion H; subst.
    split; [reflexivity | repeat split; try reflexivity]. simpl. eapply ce_after_rank; eauto.
  - (* LSendErrSetRO *) destruct (ce_after ERO (ce s)) eqn:CA; [|discriminate].
    apply guard_some in H; destruct H as [G ->].
    split; [reflexivity | repeat split; try reflexivity]. simpl. eapply ce_after_rank; eauto.
  - (* LSendCmd *) destruct b; simpl in H; destruct p; try discriminate.
    + destruct (mc s); try discriminate. inversion H; subst. destruct k; reflexivity.
    + destruct (t_recv_cmd (tc s)); [|discriminate]. inversion H; subst. destruct k; reflexivity.
  - (* LTrySendCmd *) destruct b; inversion H; subst.
    + destruct (mc s) eqn:HM; repeat split; auto.
    + destruct (t_recv_cmd (tc s)) eqn:HR; repeat split; auto.
  - (* LSendPause *) destruct (t_recv_pause (tc s)); [|discriminate]. inversion H; subst. reflexivity.
  - (* LRecvResume *) destruct (tc s); try discriminate. inversion H; subst. reflexivity.
  - (* LAck *) destruct p; try discriminate.
    + inversion H; subst. destruct (mx s) as [w|]; [| split; [left; reflexivity | apply bgsame_refl]].
      destruct (deliver_same BM ok w s) as (_ & _ & _ & _ & _ & _ & _ & _ & _ & _ & D11 & _ & D13 & _ & D15 & D16).
      split; [apply (deliver_acked BM ok w s) | repeat split; simpl; congruence].
    + apply guard_some in H; destruct H as [G ->].
      destruct (tx s) as [w|]; [| split; [left; reflexivity | apply bgsame_refl]].
      destruct (deliver_same BT ok w s) as (_ & _ & _ & _ & _ & _ & _ & _ & _ & _ & D11 & _ & D13 & _ & D15 & D16).
      split; [apply (deliver_acked BT ok w s) | repeat split; simpl; congruence].
  - (* LEnqueue *) destruct (tx s) as [w|]; [|discriminate]. inversion H; subst. repeat split; auto. exists w; reflexivity.
  - (* LAckQ *) destruct (tq s) as [|w rest] eqn:HQ; [discriminate|]. inversion H; subst.
    destruct (deliver_same BT ok w s) as (_ & _ & _ & _ & _ & _ & _ & _ & _ & _ & D11 & _ & D13 & _ & D15 & D16).
    split; [apply (deliver_acked BT ok w s) | repeat split; simpl; try congruence]. exists w; reflexivity.
Qed.

Fixpoint csum (n : nat) (f : nat -> cpc) : nat :=
  match n with 0 => 0 | S m => csum m f + crank (f m) end.

Lemma csum_upd_ge : forall n f i x, n <= i -> csum n (upd f i x) = csum n f.
Proof.
  induction n as [| n IH]; intros f i x H; simpl; [reflexivity|].
  rewrite IH by lia. rewrite upd_other by lia. reflexivity.
Qed.
Lemma csum_upd : forall n f i x, i < n -> csum n (upd f i x) + crank (f i) = csum n f + crank x.
Proof.
  induction n as [| n IH]; intros f i x H; [lia|]. simpl.
  destruct (Nat.eq_dec i n) as [-> | NE].
  - rewrite csum_upd_ge by lia. rewrite upd_same. lia.
  - rewrite upd_other by lia. pose proof (IH f i x ltac:(lia)). lia.
Qed.

Definition support (N : nat) (s : state) : Prop := forall j, N <= j -> cli s j = Idle.

Lemma support_lt : forall N s j, support N s -> cli s j <> Idle -> j < N.
Proof. intros N s j S H. destruct (Nat.lt_ge_cases j N) as [X | X]; auto. elim H. apply S; auto. Qed.

Definition measure (N : nat) (s : state) : nat :=
  200 * csum N (cli s) + 10 * mrank (mc s) + trank (tc s) + length (tq s) + cerank (ce s).

(* a goroutine moves to a smaller rank and nothing else that is measured changes *)
Lemma measure_cli_lt : forall N s s1 i pc', i < N -> cli s1 = cli s -> bgsame s s1 ->
  crank pc' < crank (cli s i) -> measure N (set_pc s1 i pc') < measure N s.
Proof.
  intros N s s1 i pc' IN E1 (E2 & E3 & E4 & E5) CK. unfold measure, set_pc, set_cli, set_mc, set_tc; cbn [cli mc tc tq ce]. rewrite E1, E2, E3, E4, E5.
  pose proof (csum_upd N (cli s) i pc' IN). lia.
Qed.
Lemma measure_m_lt : forall N s s1 pc', csum N (cli s1) <= csum N (cli s) -> tc s1 = tc s -> tq s1 = tq s ->
  cerank (ce s1) = cerank (ce s) -> mrank pc' < mrank (mc s) -> measure N (set_mc s1 pc') < measure N s.
Proof. intros N s s1 pc' E1 E3 E4 E5 CK. unfold measure, set_pc, set_cli, set_mc, set_tc; cbn [cli mc tc tq ce]. rewrite E3, E4, E5. lia. Qed.
Lemma measure_t_lt : forall N s s1 pc', csum N (cli s1) <= csum N (cli s) -> mc s1 = mc s ->
  cerank (ce s1) = cerank (ce s) -> trank pc' + length (tq s1) < trank (tc s) + length (tq s) ->
  measure N (set_tc s1 pc') < measure N s.
Proof. intros N s s1 pc' E1 E2 E5 CK. unfold measure, set_pc, set_cli, set_mc, set_tc; cbn [cli mc tc tq ce]. rewrite E2, E5. lia. Qed.

Lemma takes_close_cond : forall {P} (es : list (lbl * P)) k l pc',
  takes_close es k = true -> nth_error es k = Some (l, pc') -> has_close es && negb (is_sc l) = false.
Proof.
  intros P es k l pc' T N. unfold takes_close in T. rewrite N in T.
  destruct (has_close es); [rewrite T; reflexivity | reflexivity].
Qed.

Lemma acked_csum : forall N ok s s1, support N s -> acked ok s s1 -> csum N (cli s1) <= csum N (cli s).
Proof.
  intros N ok s s1 S [E | [j [T E]]]; rewrite E; [lia|].
  assert (J : j < N) by (apply (support_lt N s); auto; intro X; rewrite X in T; discriminate).
  pose proof (csum_upd N (cli s) j (after_ack ok (cli s j)) J). pose proof (after_ack_rank ok _ T). lia.
Qed.

Lemma recv_cmd_rank : forall t, t_recv_cmd t = true -> trank t = 2.
Proof. destruct t; simpl; intro; try discriminate; reflexivity. Qed.

Lemma m_decreases : forall N s k s', closed s = true -> support N s ->
  good s (AM k) = true -> step fixed s (AM k) = Some s' -> measure N s' < measure N s.
Proof.
  intros N s k s' HD S GD H. simpl in H, GD.
  destruct (nth_error (medges (mc s)) k) as [[l pc']|] eqn:NE; [|discriminate].
  pose proof (nth_forallb _ _ _ _ (medges_close_ok (mc s)) NE) as CK.
  pose proof (nth_forallb _ _ _ _ (medges2_ok (mc s)) NE) as EK.
  destruct (lsem fixed PM l 0 s) as [s1|] eqn:L; [|discriminate]. inversion H; subst s'; clear H.
  unfold m_ok in CK. rewrite (takes_close_cond _ _ _ _ GD NE) in CK.
  assert (ML : m_lbl l = true) by (unfold medge2_ok in EK; bsplit; assumption).
  pose proof (lsem_effect _ _ _ _ _ L) as EF.
  destruct l; try discriminate ML; try discriminate CK; unfold lbl_effect in EF; unfold m_cond in CK.
  all: try (apply Nat.ltb_lt in CK; destruct EF as (E1 & E2 & E3 & E4 & E5); apply measure_m_lt; auto; rewrite E1; auto).
  - (* LIfClosed *) destruct b.
    + apply Nat.ltb_lt in CK. destruct EF as (E1 & E2 & E3 & E4 & E5). apply measure_m_lt; auto. rewrite E1; auto.
    + simpl in L. apply guard_some in L. destruct L as [G _]. rewrite HD in G. discriminate.
  - (* LTrySendCmd *) destruct b; [discriminate ML|].
    apply Nat.ltb_lt in CK. destruct EF as (E1 & E2 & E3 & E4 & [E5 | [E5 E6]]).
    + apply measure_m_lt; auto. rewrite E1; auto.
    + unfold measure, set_pc, set_cli, set_mc, set_tc; cbn [cli mc tc tq ce]. rewrite E1, E3, E4, E6, (recv_cmd_rank _ E5). cbn [trank]. lia.
  - (* LAck *)
    apply Nat.ltb_lt in CK. destruct EF as (A & E2 & E3 & E4 & E5). apply measure_m_lt; auto.
    exact (acked_csum N ok s s1 S A).
Qed.

Lemma t_decreases : forall N s k s', closed s = true -> support N s ->
  good s (AT k) = true -> step fixed s (AT k) = Some s' -> measure N s' < measure N s.
Proof.
  intros N s k s' HD S GD H. simpl in H, GD.
  destruct (nth_error (tedges (tc s)) k) as [[l pc']|] eqn:NE; [|discriminate].
  pose proof (nth_forallb _ _ _ _ (tedges_close_ok (tc s)) NE) as CK.
  pose proof (nth_forallb _ _ _ _ (tedges2_ok (tc s)) NE) as EK.
  destruct (lsem fixed PT l 0 s) as [s1|] eqn:L; [|discriminate]. inversion H; subst s'; clear H.
  unfold t_ok in CK. rewrite (takes_close_cond _ _ _ _ GD NE) in CK.
  assert (TL : t_lbl l = true) by (unfold tedge2_ok in EK; bsplit; assumption).
  pose proof (lsem_effect _ _ _ _ _ L) as EF.
  destruct l; try discriminate TL; unfold lbl_effect in EF; unfold t_cond in CK.
  all: try (apply Nat.ltb_lt in CK; destruct EF as (E1 & E2 & E3 & E4 & E5); apply measure_t_lt; auto;
            [rewrite E1; auto | rewrite E4; lia]).
  - (* LIfClosed *) destruct b.
    + apply Nat.ltb_lt in CK. destruct EF as (E1 & E2 & E3 & E4 & E5). apply measure_t_lt; auto;
        [rewrite E1; auto | rewrite E4; lia].
    + simpl in L. apply guard_some in L. destruct L as [G _]. rewrite HD in G. discriminate.
  - (* LAck *)
    apply Nat.ltb_lt in CK. destruct EF as (A & E2 & E3 & E4 & E5). apply measure_t_lt; auto;
      [exact (acked_csum N ok s s1 S A) | rewrite E4; lia].
  - (* LEnqueue *)
    apply Nat.ltb_lt in CK. destruct EF as (E1 & E2 & E3 & E4 & [w E5]). apply measure_t_lt; auto;
      [rewrite E1; auto | rewrite E5, app_length; simpl; lia].
  - (* LAckQ *)
    apply Nat.leb_le in CK. destruct EF as (A & E2 & E3 & E4 & [w E5]). apply measure_t_lt; auto;
      [exact (acked_csum N ok s s1 S A) | rewrite E5; simpl; lia].
Qed.

Lemma ce_decreases : forall N s k s', closeC s = true ->
  good s (ACE k) = true -> step fixed s (ACE k) = Some s' -> measure N s' < measure N s.
Proof.
  intros N s k s' HC GD H. simpl in H, GD. apply Nat.eqb_eq in GD. subst k. unfold step_ce in H.
  assert (G : ce s <> E_done /\ s' = set_ce (if (match ce s with E_per => true | _ => false end) && locking s
                       then set_locking (set_wl s WFree) false else s) E_done).
  { destruct (ce s); try discriminate; apply guard_some in H; destruct H; split; auto; discriminate. }
  destruct G as [NE ->].
  assert (R : cerank (ce s) = 1) by (destruct (ce s); try reflexivity; congruence).
  unfold measure. destruct ((match ce s with E_per => true | _ => false end) && locking s);
    cbn [cli mc tc tq ce set_ce set_locking set_wl cerank]; rewrite R; lia.
Qed.

Lemma csum_upd2 : forall N f i j x y, i < N -> j < N -> i <> j ->
  csum N (upd (upd f j y) i x) + crank (f i) + crank (f j) = csum N f + crank x + crank y.
Proof.
  intros N f i j x y Hi Hj NE.
  pose proof (csum_upd N (upd f j y) i x Hi) as A. rewrite upd_other in A by auto.
  pose proof (csum_upd N f j y Hj) as B. lia.
Qed.

(* the partner of a rendezvous is another client: the actor's own program counter has an outgoing edge with
   that label, the partner's (W1 / W2 / W3) has not *)
Lemma partner_ne : forall s i j k l pc', nth_error (cedges fixed (cli s i)) k = Some (l, pc') ->
  (cli s j = W1 true \/ cli s j = W2 \/ cli s j = W3) ->
  match l with LMergeRecv _ | LMergedTrue | LAckOne | LGiveW => True | _ => False end -> i <> j.
Proof.
  intros s i j k l pc' NE HJ HL E. subst j.
  destruct HJ as [X | [X | X]]; rewrite X in NE;
    repeat (destruct k as [|k]; simpl in NE; try discriminate); inversion NE; subst; contradiction.
Qed.

(* the actor and its partner of the merge protocol move together *)
Lemma partner_decreases : forall N s s1 i k l pc' j q', support N s -> i < N ->
  nth_error (cedges fixed (cli s i)) k = Some (l, pc') ->
  match l with LMergeRecv _ | LMergedTrue | LAckOne | LGiveW => True | _ => False end ->
  (cli s j = W1 true \/ cli s j = W2 \/ cli s j = W3) -> cli s1 = upd (cli s) j q' -> bgsame s s1 ->
  crank pc' + crank q' < crank (cli s i) + crank (cli s j) ->
  measure N (set_pc s1 i pc') < measure N s.
Proof.
  intros N s s1 i k l pc' j q' S IN NE HL HJ E1 (E2 & E3 & E4 & E5) CK.
  pose proof (partner_ne s i j k l pc' NE HJ HL) as NJ.
  assert (JN : j < N) by (apply (support_lt N s); auto; destruct HJ as [X | [X | X]]; rewrite X; discriminate).
  unfold measure, set_pc, set_cli, set_mc, set_tc; cbn [cli mc tc tq ce]. rewrite E1, E2, E3, E4, E5.
  pose proof (csum_upd2 N (cli s) i j pc' q' IN JN NJ). lia.
Qed.

Lemma c_decreases : forall N s i k arg s', closed s = true -> support N s ->
  good s (ACli i k arg) = true -> step fixed s (ACli i k arg) = Some s' -> measure N s' < measure N s.
Proof.
  intros N s i k arg s' HD S GD H. simpl in H, GD. apply andb_prop in GD. destruct GD as [GC GD].
  destruct (nth_error (cedges fixed (cli s i)) k) as [[l pc']|] eqn:NE; [|discriminate].
  pose proof (forall_idx_nth _ _ 0 k _ (cedges_close_ok (cli s i)) NE) as CK. simpl in CK.
  pose proof (nth_forallb _ _ _ _ (cedges1_ok (cli s i)) NE) as EK.
  destruct (lsem fixed (PCli i) l arg s) as [s1|] eqn:L; [|discriminate]. inversion H; subst s'; clear H.
  unfold c_ok in CK. rewrite GC, (takes_close_cond _ _ _ _ GD NE) in CK. simpl in CK.
  assert (CL : client_lbl l = true) by (eapply cedge1_client; eauto).
  assert (IN : i < N).
  { apply (support_lt N s); auto. intro X. rewrite X in GC. discriminate. }
  pose proof (lsem_effect _ _ _ _ _ L) as EF. clear EK.
  destruct l; try discriminate CL; try discriminate CK; unfold lbl_effect in EF; unfold c_cond in CK.
  all: try (apply Nat.ltb_lt in CK; destruct EF as [E1 E2]; apply measure_cli_lt; assumption).
  - (* LIfClosed *) destruct b.
    + apply Nat.ltb_lt in CK. destruct EF as [E1 E2]. apply measure_cli_lt; assumption.
    + simpl in L. apply guard_some in L. destruct L as [G _]. rewrite HD in G. discriminate.
  - (* LCasClosed *) destruct b.
    + simpl in L. apply guard_some in L. destruct L as [G _]. rewrite HD in G. discriminate.
    + apply Nat.ltb_lt in CK. destruct EF as [E1 E2]. apply measure_cli_lt; assumption.
  - (* LGiveW *)
    apply Nat.ltb_lt in CK. destruct EF as (j & HJ & E1 & E2).
    apply (partner_decreases N s s1 i k LGiveW pc' j (WF true)); auto. rewrite HJ. exact CK.
  - (* LAckOne *)
    apply Nat.ltb_lt in CK. destruct EF as (HJ & E1 & E2).
    apply (partner_decreases N s s1 i k LAckOne pc' arg Ret); auto. rewrite HJ. exact CK.
  - (* LMergeRecv *)
    apply Nat.ltb_lt in CK. destruct EF as (HJ & E1 & E2).
    apply (partner_decreases N s s1 i k (LMergeRecv fits) pc' arg W2); auto. rewrite HJ. exact CK.
  - (* LMergedTrue *)
    apply Nat.ltb_lt in CK. destruct EF as (j & HJ & E1 & E2).
    apply (partner_decreases N s s1 i k LMergedTrue pc' j W3); auto. rewrite HJ. exact CK.
  - (* LTrySendCmd *)
    apply Nat.ltb_lt in CK. pose proof (csum_upd N (cli s) i pc' IN) as A. destruct b.
    + destruct EF as (E1 & E2 & E3 & E4 & [E5 | [E5 E6]]);
        [apply measure_cli_lt; auto; repeat split; assumption |].
      unfold measure, set_pc, set_cli, set_mc, set_tc; cbn [cli mc tc tq ce]. rewrite E1, E2, E3, E4, E5, E6. cbn [mrank]. lia.
    + destruct EF as (E1 & E2 & E3 & E4 & [E5 | [E5 E6]]);
        [apply measure_cli_lt; auto; repeat split; assumption |].
      unfold measure, set_pc, set_cli, set_mc, set_tc; cbn [cli mc tc tq ce]. rewrite E1, E2, E3, E4, E6, (recv_cmd_rank _ E5). cbn [trank]. lia.
Qed.

Theorem good_step_decreases : forall N s a s', inv2 s -> closeC s = true -> support N s ->
  good s a = true -> step fixed s a = Some s' -> measure N s' < measure N s.
Proof.
  intros N s a s' I2 HC S GD H. pose proof (g1 s I2 HC) as HD. destruct a.
  - eapply c_decreases; eauto.
  - eapply m_decreases; eauto.
  - eapply t_decreases; eauto.
  - eapply ce_decreases; eauto.
Qed.

Local Set Warnings "-unused-intro-pattern".
Lemma effect_idle : forall l arg s s1, lbl_effect l arg s s1 -> forall j, cli s j = Idle -> cli s1 j = Idle.
Proof.
  intros l arg s s1 EF j HJ.
  assert (U : forall j0 x, cli s j0 <> Idle -> upd (cli s) j0 x j = Idle).
  { intros j0 x NI. unfold upd. destruct (Nat.eqb j j0) eqn:E; auto. apply Nat.eqb_eq in E; subst. congruence. }
  assert (A : forall ok, acked ok s s1 -> cli s1 j = Idle).
  { intros ok [E | [j0 [T E]]]; rewrite E; auto. apply U. intro X. rewrite X in T. discriminate. }
  destruct l; unfold lbl_effect in EF;
    try (solve [destruct EF as [E _]; rewrite E; exact HJ]);
    try (rewrite EF; exact HJ);
    try (solve [destruct EF as [X _]; eapply A; eauto]).
  - destruct EF as (j0 & HJ0 & E & _). rewrite E. apply U. rewrite HJ0. discriminate.
  - destruct EF as (HJ0 & E & _). rewrite E. apply U. rewrite HJ0. discriminate.
  - destruct EF as (HJ0 & E & _). rewrite E. apply U. rewrite HJ0. discriminate.
  - destruct EF as (j0 & HJ0 & E & _). rewrite E. apply U. rewrite HJ0. discriminate.
  - destruct b; destruct EF as [E _]; rewrite E; exact HJ.
Qed.

Lemma step_idle : forall s a s' j, step fixed s a = Some s' -> cli s j = Idle ->
  cli s' j = Idle \/ (exists k arg, a = ACli j k arg).
Proof.
  intros s a s' j H HJ. destruct a; simpl in H.
  - destruct (nth_error (cedges fixed (cli s i)) k) as [[l pc']|]; try discriminate.
    destruct (lsem fixed (PCli i) l arg s) eqn:E; try discriminate. inversion H; subst. simpl.
    destruct (Nat.eq_dec j i) as [-> | NE]; [right; eauto | left].
    rewrite upd_other by auto. eapply effect_idle; eauto using lsem_effect.
  - destruct (nth_error (medges (mc s)) k) as [[l pc']|]; try discriminate.
    destruct (lsem fixed PM l 0 s) eqn:E; try discriminate. inversion H; subst. simpl. left.
    eapply effect_idle; eauto using lsem_effect.
  - destruct (nth_error (tedges (tc s)) k) as [[l pc']|]; try discriminate.
    destruct (lsem fixed PT l 0 s) eqn:E; try discriminate. inversion H; subst. simpl. left.
    eapply effect_idle; eauto using lsem_effect.
  - left. unfold step_ce, guard in H.
    repeat match type of H with context[match ?x with _ => _ end] => destruct x eqn:? end;
      try discriminate; inversion H; subst; simpl; auto.
Qed.

(* a good step is not a new call: the clients that are Idle stay Idle *)
Lemma good_support : forall N s a s', support N s -> good s a = true -> step fixed s a = Some s' -> support N s'.
Proof.
  intros N s a s' S GD H j HJ. destruct (step_idle s a s' j H (S j HJ)) as [X | (k & arg & ->)]; auto.
  simpl in GD. rewrite (S j HJ) in GD. discriminate.
Qed.

Lemma support_mono : forall N M s, support N s -> N <= M -> support M s.
Proof. intros N M s S LE j HJ. apply S. lia. Qed.

Theorem support_exists : forall s, reachable fixed s -> exists N, support N s.
Proof.
  induction 1 as [| s a s' R [N S] ST].
  - exists 0. intros j _. reflexivity.
  - destruct a as [i k arg | k | k | k].
    + exists (Nat.max N (Datatypes.S i)). intros j HJ.
      destruct (step_idle s _ s' j ST (S j ltac:(lia))) as [X | (k0 & arg0 & E)]; auto. inversion E; lia.
    + exists N. intros j HJ. destruct (step_idle s _ s' j ST (S j HJ)) as [X | (k0 & arg0 & E)]; auto; discriminate.
    + exists N. intros j HJ. destruct (step_idle s _ s' j ST (S j HJ)) as [X | (k0 & arg0 & E)]; auto; discriminate.
    + exists N. intros j HJ. destruct (step_idle s _ s' j ST (S j HJ)) as [X | (k0 & arg0 & E)]; auto; discriminate.
Qed.

Lemma deliver_closeC : forall b ok w s, closeC (deliver b ok w s) = closeC s.
Proof. intros. apply (deliver_same b ok w s). Qed.

Lemma lsem_closeC : forall p l arg s s1, lsem fixed p l arg s = Some s1 -> closeC s = true -> closeC s1 = true.
Proof.
  intros p l arg s s1 H W. destruct l; simpl in H; unfold guard in H;
    repeat match type of H with context[match ?x with _ => _ end] => destruct x eqn:? end;
    try discriminate; inversion H; subst; simpl; rewrite ?deliver_closeC; auto.
Qed.

Lemma step_closeC : forall s a s', step fixed s a = Some s' -> closeC s = true -> closeC s' = true.
Proof.
  intros s a s' H W. destruct a; simpl in H.
  - destruct (nth_error (cedges fixed (cli s i)) k) as [[l pc']|]; try discriminate.
    destruct (lsem fixed (PCli i) l arg s) eqn:E; try discriminate. inversion H; subst. simpl. eapply lsem_closeC; eauto.
  - destruct (nth_error (medges (mc s)) k) as [[l pc']|]; try discriminate.
    destruct (lsem fixed PM l 0 s) eqn:E; try discriminate. inversion H; subst. simpl. eapply lsem_closeC; eauto.
  - destruct (nth_error (tedges (tc s)) k) as [[l pc']|]; try discriminate.
    destruct (lsem fixed PT l 0 s) eqn:E; try discriminate. inversion H; subst. simpl. eapply lsem_closeC; eauto.
  - unfold step_ce, guard in H.
    repeat match type of H with context[match ?x with _ => _ end] => destruct x eqn:? end;
      try discriminate; inversion H; subst; simpl; auto.
Qed.

Lemma run_reachable : forall l s s', reachable fixed s -> run fixed s l = Some s' -> reachable fixed s'.
Proof.
  induction l as [| a l IH]; intros s s' R H; simpl in H; [inversion H; subst; auto|].
  destruct (step fixed s a) as [s1|] eqn:E; [|discriminate]. apply (IH s1 s'); auto. eapply reach_step; eauto.
Qed.

Fixpoint grun (s : state) (l : list action) : option state :=
  match l with
  | [] => Some s
  | a :: l' => if good s a then match step fixed s a with Some s' => grun s' l' | None => None end else None
  end.

Lemma grun_keeps : forall l N s s', reachable fixed s -> closeC s = true -> support N s -> grun s l = Some s' ->
  reachable fixed s' /\ closeC s' = true /\ support N s' /\ length l + measure N s' <= measure N s.
Proof.
  induction l as [| a l IH]; intros N s s' R HC S H; simpl in H.
  - inversion H; subst. repeat split; auto.
  - destruct (good s a) eqn:GD; [|discriminate]. destruct (step fixed s a) as [s1|] eqn:ST; [|discriminate].
    pose proof (good_step_decreases N s a s1 (inv2_reachable s R) HC S GD ST) as D.
    destruct (IH N s1 s' (reach_step fixed s a s1 R ST) (step_closeC _ _ _ ST HC) (good_support _ _ _ _ S GD ST) H)
      as (A & B & C & E).
    repeat split; auto. simpl. lia.
Qed.

(* every run of good steps from a reachable state with closeC closed is bounded by the measure *)
Theorem close_bounded : forall l N s s', reachable fixed s -> closeC s = true -> support N s ->
  grun s l = Some s' -> length l + measure N s' <= measure N s.
Proof. intros. eapply grun_keeps; eauto. Qed.

Lemma is_sc_true : forall l, is_sc l = true -> l = LSeeClosed.
Proof. destruct l; simpl; intro; try discriminate; reflexivity. Qed.

Lemma has_close_idx : forall {P} (es : list (lbl * P)), has_close es = true ->
  exists k pc', nth_error es k = Some (LSeeClosed, pc').
Proof.
  intros P es H. destruct (existsb_nth _ _ H) as (k & [l pc'] & N & E).
  apply is_sc_true in E. simpl in E. subst l. exists k, pc'. exact N.
Qed.

Lemma takes_close_at : forall {P} (es : list (lbl * P)) k pc', nth_error es k = Some (LSeeClosed, pc') ->
  takes_close es k = true.
Proof. intros P es k pc' N. unfold takes_close. rewrite N. destruct (has_close es); reflexivity. Qed.
Lemma takes_close_none : forall {P} (es : list (lbl * P)) k, has_close es = false -> takes_close es k = true.
Proof. intros P es k H. unfold takes_close. rewrite H. reflexivity. Qed.

(* The code before repair fb021ae.
   OpenTransaction (client 0) passes the closed test and takes the write lock; Close (client 1) sets closed, closes
   closeC and reads db.tr == nil; OpenTransaction publishes db.tr and -- before the repair -- returns the
   transaction: Close waits for the write lock, which belongs to a transaction on a closed DB, until its owner discards it.  On the
   same schedule the repaired code stands in front of tr.lk.Lock() of its own clean-up (closeC was closed), and
   nine good steps later both calls have returned. *)
Definition trace_D9 : list action :=
  [ACli 0 4 0; ACli 0 1 0; ACli 0 0 0; ACli 1 7 0; ACli 1 0 0; ACli 1 0 0; ACli 1 0 0; ACli 1 1 0;
   ACli 0 2 0; ACli 0 1 0; ACli 0 0 0; ACli 0 0 0; AM 0; AM 0; AT 0; AT 0; AT 1; ACE 1].
Definition trace_D9_rest : list action :=
  [ACli 0 0 0; ACli 0 0 0; ACli 0 0 0; ACli 0 0 0; ACli 0 0 0; ACli 1 0 0; ACli 1 0 0; ACli 1 0 0; ACli 1 0 0].
Definition summary9 (v : variant) (o : option state) :=
  match o with
  | Some s => Some (cli s 0, cli s 1, wl s, trown s, mc s, tc s, ce s,
                    match step v s (ACli 1 0 0) with Some _ => true | None => false end)
  | None => None
  end.
Example late_transaction_refuted :
  summary9 unfixed_D9 (run unfixed_D9 init trace_D9) = Some (IdleTr, CL4, WTr, Some 0, MDone, TDone, E_done, false) /\
  summary9 fixed (run fixed init trace_D9) = Some (OT6 XUser, CL4, WTr, Some 0, MDone, TDone, E_done, false) /\
  match run fixed init trace_D9 with
  | Some s => match grun s trace_D9_rest with Some s' => Some (cli s' 0, cli s' 1, wl s', trown s') | None => None end
  | None => None
  end = Some (Idle, Idle, WClosed, None).
Proof. repeat split; vm_compute; reflexivity. Qed.
