(* Conc/CacheLtsClose.v — the invariant of the interleaved semantics extended to Close(false):
   every state reachable by any interleaving of ALL operations except force-close ([lreach_c]) satisfies
   the invariants of Conc/CacheInv.v.  Close(false)'s flag section needs the operations' lock exclusively — no
   goroutine inside Get/Delete/Evict/EvictNS/EvictAll ([t_rl]) — but may overlap Release, SetCapacity and
   zero-checks that were pending when it started; the re-read of the count on unRefExternal's closed path
   ([zero_check_closed]) is what makes that overlap safe.  Proof file. *)
From GL Require Import Conc.Cache Conc.CacheLemmas Conc.CacheInv Conc.CacheProofs Conc.CacheTheorems Conc.CacheLts
  Conc.CacheLtsInv.
From Coq Require Import Lia.

Definition all_ext (k : list instr) : bool := forallb ext_only k.
(* Wok: a goroutine that does not hold the operations' lock has only [ext_only] instructions left (Release,
   SetCapacity, Close's evictions); Qok: on the closed cache that is so for every goroutine.  Such code carries no
   value or ban facts, which is what lets the other goroutines' [code_ok] cross a step ([code_ok_step_ext]). *)
Definition Wok (l : list (N * thread)) : Prop :=
  forall p, In p l -> t_rl (snd p) = false -> all_ext (t_code (snd p)) = true.
Definition Qok (l : list (N * thread)) : Prop :=
  forall p, In p l -> all_ext (t_code (snd p)) = true.

Lemma all_ext_app a b : all_ext (a ++ b) = all_ext a && all_ext b.
Proof. unfold all_ext. apply forallb_app. Qed.
Lemma all_ext_decs ev : all_ext (decs true ev) = true.
Proof. unfold all_ext, decs. induction ev; cbn; auto. Qed.
Lemma all_ext_evicts l : all_ext (map IEvict l) = true.
Proof. unfold all_ext. induction l; cbn; auto. Qed.

Lemma exec_ext i g g' new : ext_only i = true -> exec i g = (g', new) -> all_ext new = true.
Proof.
  destruct i; cbn [ext_only]; try discriminate; intros He E; cbn [exec] in E.
  - destruct ext; [|discriminate]. destruct (find_id x (s_nodes g)); [|injection E as <- <-; reflexivity].
    injection E as <- <-. destruct (n_ref n - 1 =? 0)%Z; reflexivity.
  - injection E as <- <-. reflexivity.
  - destruct (evict_locked x g) as [s' ev]. injection E as <- <-. apply all_ext_decs.
Qed.

Lemma start_shape o b g g' code rl : start o b g = Some (g', code, rl) -> rl = false -> all_ext code = true.
Proof.
  destruct o; cbn [start]; intros E Hr.
  - destruct (s_closed g); [injection E as <- <- <-; reflexivity|].
    destruct (bucket_get ns key match sf with SfNil => true | SfRet _ _ => false end g) as [s1 [x|]];
      injection E as <- <- <-; [discriminate|reflexivity].
  - destruct (find (fun p => fst p =? h) (s_handles g)); injection E as <- <- <-; reflexivity.
  - destruct (s_closed g); [injection E as <- <- <-; reflexivity|].
    destruct (bucket_get ns key true g) as [s1 [x|]]; injection E as <- <- <-; [discriminate|reflexivity].
  - destruct (s_closed g); [injection E as <- <- <-; reflexivity|].
    destruct (bucket_get ns key true g) as [s1 [x|]]; injection E as <- <- <-; [discriminate|reflexivity].
  - destruct (s_closed g); [injection E as <- <- <-; reflexivity|].
    destruct (s_cacher g); injection E as <- <- <-; [discriminate|reflexivity].
  - destruct (s_closed g); [injection E as <- <- <-; reflexivity|].
    destruct (s_cacher g); injection E as <- <- <-; [discriminate|reflexivity].
  - destruct (s_cacher g); [|injection E as <- <- <-; reflexivity].
    destruct (run_evict_loop (set_cap c g)) as [s1 ev]. injection E as <- <- <-. apply all_ext_decs.
  - destruct (s_closed g); [injection E as <- <- <-; reflexivity|]. destruct b; [discriminate|].
    destruct force; injection E as <- <- <-; [reflexivity|]. destruct (s_cacher g); [apply all_ext_evicts|reflexivity].
Qed.

Lemma start_closed_shape o b g g' code rl : s_closed g = true -> start o b g = Some (g', code, rl) -> all_ext code = true.
Proof.
  intros Hc E. destruct o; cbn [start] in E; rewrite ?Hc in E; try (injection E as <- <- <-; reflexivity).
  - destruct (find (fun p => fst p =? h) (s_handles g)); injection E as <- <- <-; reflexivity.
  - destruct (s_cacher g); [|injection E as <- <- <-; reflexivity].
    destruct (run_evict_loop (set_cap c g)) as [s1 ev]. injection E as <- <- <-. apply all_ext_decs.
Qed.

Lemma Wok_lstep L a L' : Wok (l_thr L) -> lstep L a = Some L' -> Wok (l_thr L').
Proof.
  intros W E. destruct L as [g thr]. destruct a as [t o|t]; cbn [lstep l_g l_thr] in E.
  - destruct (t_code (get_thr t thr)); [|discriminate].
    destruct (start o (rlocked_other t thr) g) as [[[g' code] rl]|] eqn:St; [|discriminate]. injection E as <-.
    cbn [l_thr]. intros p Hp Hr. apply in_set_thr in Hp. destruct Hp as [->|Hp].
    + cbn in *. eapply start_shape; eauto.
    + apply W; auto. eapply others_sub; eauto.
  - destruct (t_code (get_thr t thr)) as [|i k] eqn:Code; [discriminate|].
    destruct (exec i g) as [g' new] eqn:Ex. injection E as <-.
    cbn [l_thr]. intros p Hp Hr. apply in_set_thr in Hp. destruct Hp as [->|Hp].
    + cbn in *. assert (In (t, get_thr t thr) thr) as Hin by (apply get_thr_code_in; rewrite Code; discriminate).
      pose proof (W _ Hin Hr) as A. cbn [snd] in A. rewrite Code in A. cbn [all_ext forallb] in A.
      apply andb_true_iff in A. destruct A as [A1 A2]. rewrite all_ext_app. apply andb_true_iff. split; auto.
      eapply exec_ext; eauto.
    + apply W; auto. eapply others_sub; eauto.
Qed.

(* transfer of other goroutines' pending instructions across a step when they are all of the
   RLock-free kind (no value or ban facts to carry) *)
Lemma code_ok_step_ext s s' k : Ext s s' -> all_ext k = true -> code_ok s k -> code_ok s' k.
Proof.
  intros (E1 & E2 & E3). induction k as [|i k IH]; cbn [code_ok all_ext forallb]; auto.
  intros A [Hi Hk]. apply andb_true_iff in A. destruct A as [A1 A2]. split; [|apply IH; auto].
  destruct i; cbn [ext_only] in A1; try discriminate; cbn [instr_ok] in *; auto.
  destruct Hi as [Hlt Hkey]. split; [lia|]. intros n' Hn' Hx'.
  destruct (E3 n' Hn') as (m & Hm & i' & kk & _); [lia|]. unfold keyof in kk. inversion kk.
  destruct (Hkey m Hm) as [a b]; [congruence|]. split; congruence.
Qed.

Section StepClosed.
  Variable zr : N -> bool.
  Variable q : N -> Z.
  Hypothesis Hq : forall y, (0 <= q y)%Z.

  (* IZero (external) on the closed cache: re-read the count; finalise in place only if it is 0 *)
  Lemma step_zero_c g x ns key g' new :
    Inv (fun y => (y =? x) || zr y) q g -> CapOk g -> s_closed g = true -> s_forced g = false ->
    exec (IZero x ns key true) g = (g', new) ->
    (Inv zr q g' /\ CapOk g' /\ s_closed g' = true /\ s_forced g' = false) /\ Ext g g' /\ new = [].
  Proof.
    intros H Hcap Hc Hfo E. pose proof H as [HS HR HL HP]. unfold InvS, InvR, InvL in *.
    cbn [exec andb] in E. rewrite Hc in E. injection E as <- <-. unfold zero_check_closed.
    assert (forall s', Inv (fun y => (y =? x) || zr y) q s' ->
              (forall n, In n (s_nodes s') -> n_id n = x ->
                 (s_closed s' = false \/ n_val n <> None \/ n_dels n <> []) -> (0 < n_ref n)%Z) -> Inv zr q s') as Drop.
    { intros s' [A B C D] Hx. split; auto. unfold InvR in *. destruct B as [P PD R PO FC HN HF HO HV ST S0]. split; auto.
      intros Hf n Hn Hq' Hz. destruct (N.eq_dec (n_id n) x) as [e|ne].
      - apply Hx; auto.
      - apply PO; auto. cbv beta. rewrite Hz. apply N.eqb_neq in ne. now rewrite ne. }
    destruct (find_id x (s_nodes g)) as [n|] eqn:F.
    2: { split; [|split; [apply ExtN_refl|reflexivity]]. split; [|auto].
         apply Drop; auto. intros n Hn Hx. exfalso. apply find_id_none in F. apply F. rewrite <- Hx. now apply in_ids. }
    destruct (find_id_some _ _ _ F) as [Hn Hx].
    pose proof (ri_ref _ _ _ _ _ _ _ _ _ HR Hfo n Hn) as Er. rewrite Hx in Er.
    pose proof (hcount_nonneg x (s_handles g)). pose proof (rcount_nonneg n). pose proof (Hq x).
    destruct (Z.eqb_spec (n_ref n) 0) as [e|ne].
    - (* still zero: finalise in place *)
      assert (hcount x (s_handles g) = 0%Z /\ rcount n = 0%Z /\ q x = 0%Z) as (Hh0 & Hrc & Hq0) by lia.
      assert (resident n = false) as Hres by (unfold rcount in Hrc; destruct (resident n); [lia|auto]).
      unfold call_finalizer. rewrite F.
      change (dels_ev (n_dels n) (final_ev (n_val n) false (s_log g))) with (fin_log n false (s_log g)).
      unfold upd_node.
      set (gf := fun m : node => nd_dels [] (nd_val None (n_size m) m)).
      assert (Inv (fun y => (y =? x) || zr y) q (set_log (fin_log n false (s_log g)) (set_nodes (upd_id x gf (s_nodes g)) g))) as A.
      { apply (finalize_inplace _ q q g x n gf false); auto.
        - intro m; repeat split.
        - intros _. subst gf. cbn. split; lia. }
      split; [|split; [|reflexivity]].
      + split; [|split; [|split]]; [|unfold CapOk in *; exact Hcap|exact Hc|exact Hfo].
        apply Drop; auto. sred. intros m Hm Hmx Hpre. exfalso.
        destruct (in_upd_cases _ _ _ _ _ (si_ids _ _ _ _ HS) Hn Hx Hm) as [->|[_ ne]]; [|tauto].
        subst gf. cbn in Hpre. destruct Hpre as [e0|[e0|e0]]; congruence.
      + unfold Ext. sred. apply ExtN_upd; [intro m; repeat split|]. intros m _ _. split; auto.
    - (* revived in the meantime: leave it to the holder that will see zero *)
      split; [|split; [apply ExtN_refl|reflexivity]]. split; [|auto].
      apply Drop; auto. intros m Hm Hmx _.
      assert (m = n) as -> by (eapply same_id_eq; eauto; [apply (si_ids _ _ _ _ HS)|congruence]). lia.
  Qed.
End StepClosed.

Record LOkA (L : lstate) : Prop := {
  la_nd : NoDup (map fst (l_thr L));
  la_inv : Inv (zero_pending (l_thr L)) (pendf (l_thr L)) (l_g L);
  la_cap : CapOk (l_g L);
  la_forced : s_forced (l_g L) = false;
  la_code : forall p, In p (l_thr L) -> code_ok (l_g L) (t_code (snd p));
  la_w : Wok (l_thr L);
  la_q : s_closed (l_g L) = true -> Qok (l_thr L) }.

Lemma LOkA_open L : LOkA L -> s_closed (l_g L) = false -> LOk L.
Proof. intros [A B C D E F G] Hc. split; auto. Qed.

Lemma LOk_A L : LOk L -> Wok (l_thr L) -> LOkA L.
Proof.
  intros [A B C D E] W. split; auto.
  - apply (forced_false_of_open _ _ _ B D).
  - intro Hc. congruence.
Qed.

(* installing new code for goroutine t on a closed cache *)
Lemma lok_update_c L t newc rl g' :
  LOkA L -> Qok (others t (l_thr L)) ->
  Inv (fun y => code_zero y newc || zero_pending (others t (l_thr L)) y)
      (fun y => (pend_ref y (others t (l_thr L)) + code_ref y newc)%Z) g' ->
  CapOk g' -> s_closed g' = true -> s_forced g' = false -> Ext (l_g L) g' -> code_ok g' newc ->
  all_ext newc = true ->
  LOkA (mkL g' (set_thr t (mkThread newc rl) (l_thr L))).
Proof.
  intros [ND HI HC HF HK HW HQ] QO H' C' O' F' E' K' X'. destruct L as [g thr]. cbn [l_g l_thr] in *.
  pose proof (Inv_set_thr thr t newc rl g' H') as HI'.
  split; cbn [l_g l_thr]; auto.
  - now apply nodup_set.
  - intros p Hp. apply in_set_thr in Hp. destruct Hp as [->|Hp]; [exact K'|].
    eapply code_ok_step_ext; [exact E'|apply QO; exact Hp|apply HK; eapply others_sub; eauto].
  - intros p Hp Hr. apply in_set_thr in Hp. destruct Hp as [->|Hp]; [exact X'|]. apply QO; auto.
  - intros _ p Hp. apply in_set_thr in Hp. destruct Hp as [->|Hp]; [exact X'|]. apply QO; auto.
Qed.

Lemma Qok_others t l : Qok l -> Qok (others t l).
Proof. intros Q p Hp. apply Q. eapply others_sub; eauto. Qed.

Lemma lstep_c_o L a : is_close a = false -> lstep_c L a = lstep_o L a.
Proof. intro H. unfold lstep_c, lstep_o. rewrite H. destruct a as [t o|t]; [destruct o; cbn in *; try reflexivity; discriminate|reflexivity]. Qed.

Theorem loka_step L a L' : LOkA L -> lstep_c L a = Some L' -> LOkA L'.
Proof.
  intros OK E. pose proof OK as [ND HI HC HF HK HW HQ].
  assert (Wok (l_thr L')) as W'.
  { unfold lstep_c in E. destruct (is_force_close a); [discriminate|]. eapply Wok_lstep; eauto. }
  destruct (s_closed (l_g L)) eqn:Hc.
  2: { (* open cache *)
       destruct (is_close a) eqn:IC.
       - (* Close(false) starts *)
         destruct a as [t o|t]; [|discriminate]. destruct o; try discriminate.
         unfold lstep_c in E. destruct force; [discriminate|]. cbn [is_force_close] in E.
         destruct L as [g thr]. cbn [lstep l_g l_thr] in *.
         destruct (t_code (get_thr t thr)) eqn:Code; [|discriminate].
         cbn [start] in E. rewrite Hc in E. destruct (rlocked_other t thr) eqn:RO; [discriminate|].
         injection E as <-.
         assert (Qok (others t thr)) as QO.
         { intros p Hp. destruct (get_thr_in _ _ _ Hp) as [Hin Hne].
           unfold rlocked_other in RO. assert (negb (fst p =? t) && holds_rlock (snd p) = false) as RP.
           { destruct (negb (fst p =? t) && holds_rlock (snd p)) eqn:X; auto.
             assert (existsb (fun p => negb (fst p =? t) && holds_rlock (snd p)) thr = true) as Y by (apply existsb_exists; eauto). congruence. }
           apply N.eqb_neq in Hne. rewrite Hne in RP. cbn in RP. unfold holds_rlock in RP.
           destruct (t_rl (snd p)) eqn:RL; [|apply HW; auto].
           cbn in RP. destruct (t_code (snd p)); [reflexivity|discriminate]. }
         pose proof (Inv_idle thr t g ND Code HI) as H0.
         apply (lok_update_c (mkL g thr) t _ false (set_closed true false g) OK QO); auto.
         + eapply Inv_zq_ext; [|eapply Inv_pext; [|apply set_closed_ok; [exact H0|exact Hc]]].
           * intro y. cbn [l_thr]. destruct (s_cacher g); [rewrite code_zero_evicts|]; reflexivity.
           * intro y. cbn [l_thr]. destruct (s_cacher g); [rewrite code_ref_evicts|cbn]; lia.
         + unfold Ext. sred. cbn [l_g]. split; [lia|]. split; [auto|]. intros m' Hm' _. exists m'. repeat split; auto.
         + destruct (s_cacher g); [apply code_ok_evicts|cbn; auto].
         + destruct (s_cacher g); [apply all_ext_evicts|reflexivity].
       - rewrite (lstep_c_o L a IC) in E. apply LOk_A; auto. eapply lok_step; [apply LOkA_open; eauto|exact E]. }
  (* closed cache *)
  specialize (HQ eq_refl). unfold lstep_c in E. destruct (is_force_close a); [discriminate|].
  destruct L as [g thr]. cbn [l_g l_thr] in *.
  destruct a as [t o|t]; cbn [lstep l_g l_thr] in E.
  - destruct (t_code (get_thr t thr)) eqn:Code; [|discriminate].
    destruct (start o (rlocked_other t thr) g) as [[[g' code] rl]|] eqn:St; [|discriminate]. injection E as <-.
    pose proof (Inv_idle thr t g ND Code HI) as H0.
    destruct (start_ok _ _ g o _ g' code rl H0 HC ltac:(congruence) St) as (A & B & C & D & X & K & Z).
    rewrite Hc in C. rewrite HF in D.
    apply (lok_update_c (mkL g thr) t code rl g' OK (Qok_others t thr HQ)); auto.
    + eapply Inv_zq_ext; [|exact A]. intro y. cbn [l_thr]. now rewrite Z.
    + apply (start_closed_shape o _ g g' code rl Hc St).
  - destruct (t_code (get_thr t thr)) as [|i k] eqn:Code; [discriminate|].
    destruct (exec i g) as [g' new] eqn:Ex. injection E as <-.
    assert (In (t, get_thr t thr) thr) as Hin by (apply get_thr_code_in; auto; rewrite Code; discriminate).
    pose proof (HK _ Hin) as CK. cbn [snd] in CK. rewrite Code in CK. destruct CK as [Ci Ck].
    pose proof (HQ _ Hin) as XK. cbn [snd] in XK. rewrite Code in XK. cbn [all_ext forallb] in XK.
    apply andb_true_iff in XK. destruct XK as [Xi Xk].
    set (q := fun y => (code_ref y k + pend_ref y (others t thr))%Z).
    set (zr := fun y => code_zero y k || zero_pending (others t thr) y).
    pose proof (Inv_next thr t i k g ND Code HI) as HI0.
    change (Inv (fun y => is_zero y i || zr y) (fun y => (q y + instr_ref y i)%Z) g) in HI0.
    assert (forall y, 0 <= q y)%Z as Hq.
    { intro y. subst q. cbv beta. pose proof (code_ref_nonneg y k). pose proof (pend_ref_nonneg y (others t thr)). lia. }
    assert (forall (P : post zr q true g' new) (X : Ext g g') (F : prefix_ok g' new k),
              LOkA (mkL g' (set_thr t (mkThread (new ++ k) (t_rl (get_thr t thr))) thr))) as Finish.
    { intros (A & B & C & D) X F. apply (lok_update_c (mkL g thr) t (new ++ k) _ g' OK (Qok_others t thr HQ)); auto.
      - apply Inv_app_code. exact A.
      - apply code_ok_app; auto. eapply code_ok_step_ext; eauto.
      - rewrite all_ext_app. apply andb_true_iff. split; auto. eapply exec_ext; eauto. }
    destruct i; cbn [ext_only] in Xi; try discriminate.
    + destruct ext; [|discriminate].
      destruct (step_dec zr q Hq g x true g' new k) as (P & X & F); auto. rewrite Hc in P. auto.
    + destruct ext; [|discriminate].
      assert (Inv (fun y => (y =? x) || zr y) q g) as HZ.
      { eapply Inv_zq_ext; [|eapply Inv_pext; [|exact HI0]]; intro y; cbn [is_zero instr_ref];
          [now rewrite (N.eqb_sym x y)|lia]. }
      destruct (step_zero_c zr q Hq g x ns key g' new HZ HC Hc HF Ex) as ((A & B & C & D) & X & ->).
      apply Finish; [|exact X|cbn; auto]. split; [|split; [|split]]; auto.
      eapply Inv_zq_ext; [|eapply Inv_pext; [|exact A]]; intro y; cbn; auto. lia.
    + destruct (step_evict zr q g x g' new k) as (P & X & F); auto. rewrite Hc in P. auto.
Qed.

Lemma linit_oka cacher cap : LOkA (linit cacher cap).
Proof. apply LOk_A; [apply linit_ok|]. intros p []. Qed.

Theorem lreach_c_ok L : lreach_c L -> LOkA L.
Proof. induction 1; [apply linit_oka|eapply loka_step; eauto]. Qed.

Lemma lreach_o_c L : lreach_o L -> lreach_c L.
Proof.
  induction 1; [constructor|]. eapply lc_step; [eassumption|].
  unfold lstep_o in H0. unfold lstep_c. destruct (is_close a) eqn:IC; [discriminate|].
  assert (is_force_close a = false) as -> by (destruct a as [t o|t]; [destruct o; cbn in *; auto; discriminate|reflexivity]).
  exact H0.
Qed.

(* the C17 statements over all interleavings of all operations except force-close *)
Section LtsC.
  Variable L : lstate.
  Hypothesis R : lreach_c L.
  Let OK : LOkA L := lreach_c_ok L R.
  Let HI := la_inv L OK.
  Let HF := la_forced L OK.
  Let g := l_g L.

  Theorem one_live_value_ltc :
    forall h1 h2 n1 n2, handle_node g h1 = Some n1 -> handle_node g h2 = Some n2 -> keyof n1 = keyof n2 ->
      n1 = n2 /\
      exists v, handle_value g h1 = Some v /\ handle_value g h2 = Some v /\
                ccn (n_id n1) (s_log g) = 1%nat /\ ccv v (s_log g) = 1%nat /\ cf v (s_log g) = 0%nat.
  Proof. apply (one_live_value_gen _ _ _ HI). exact HF. Qed.

  Theorem construct_once_ltc : forall x v, (ccn x (s_log g) <= 1)%nat /\ (ccv v (s_log g) <= 1)%nat.
  Proof. apply (construct_once_gen _ _ _ HI). Qed.

  Theorem finalise_at_most_once_ltc : forall v, (cf v (s_log g) <= 1)%nat.
  Proof. apply (finalise_at_most_once_gen _ _ _ HI). Qed.

  Theorem finalise_not_early_ltc :
    forall x v sz, In (EvConstruct x v sz) (s_log g) -> (1 <= cf v (s_log g))%nat -> handles_on x (s_handles g) = 0%nat.
  Proof. apply (finalise_not_early_gen _ _ _ HI). exact HF. Qed.

  Theorem finalise_or_live_ltc :
    forall x v sz, In (EvConstruct x v sz) (s_log g) ->
      cf v (s_log g) = 1%nat \/ (cf v (s_log g) = 0%nat /\ exists n, In n (s_nodes g) /\ n_id n = x /\ n_val n = Some v).
  Proof. apply (finalise_or_live_gen _ _ _ HI). Qed.

  Theorem delfunc_at_most_once_ltc : forall d, (cdr d (s_log g) <= 1)%nat.
  Proof. apply (delfunc_at_most_once_gen _ _ _ HI). Qed.

  Theorem delfunc_not_early_ltc :
    forall d x, In (EvDelReg d x) (s_log g) -> (1 <= cdr d (s_log g))%nat -> handles_on x (s_handles g) = 0%nat.
  Proof. apply (delfunc_not_early_gen _ _ _ HI). exact HF. Qed.

  Theorem delfunc_ran_or_pending_ltc :
    forall d, d < s_next_did g ->
      cdr d (s_log g) = 1%nat \/ (cdr d (s_log g) = 0%nat /\ exists n, In n (s_nodes g) /\ In d (n_dels n)).
  Proof. apply (delfunc_ran_or_pending_gen _ _ _ HI). Qed.

  Theorem capacity_respected_ltc : s_used g = used_sum (s_nodes g) /\ (s_used g <= Z.of_N (s_cap g))%Z.
  Proof. split; [apply (used_exact_gen _ _ _ HI)|apply (la_cap L OK)]. Qed.

  Theorem lru_list_exact_ltc :
    NoDup (s_order g) /\ forall x, In x (s_order g) <-> exists n, In n (s_nodes g) /\ n_id n = x /\ resident n = true.
  Proof. apply (lru_list_exact_gen _ _ _ HI). Qed.

  Theorem unique_keys_ltc : NoDup (map keyof (s_nodes g)).
  Proof. apply (unique_keys_gen _ _ _ HI). Qed.

  Theorem ref_census_ltc :
    forall n, In n (s_nodes g) ->
      n_ref n = (Z.of_nat (handles_on (n_id n) (s_handles g)) + (if resident n then 1 else 0) + pend_ref (n_id n) (l_thr L))%Z
      /\ (0 <= n_ref n)%Z.
  Proof. apply (ref_census_gen _ _ _ HI). exact HF. Qed.

  (* on the open cache a node with count 0, and on the closed cache a node with count 0 that still has a
     value or a delFunc, is waiting for its zero-check *)
  Theorem zero_ref_is_pending_ltc :
    forall n, In n (s_nodes g) -> n_ref n = 0%Z -> (s_closed g = false \/ n_val n <> None \/ n_dels n <> []) ->
      zero_pending (l_thr L) (n_id n) = true.
  Proof.
    intros n Hn Hr Hq. destruct (zero_pending (l_thr L) (n_id n)) eqn:Z; auto. exfalso.
    pose proof (inv_r _ _ _ HI) as HR. unfold InvR in HR.
    pose proof (ri_pos _ _ _ _ _ _ _ _ _ HR HF n Hn Hq Z). fold g in H. lia.
  Qed.

  Theorem no_panic_ltc : s_panic g = false.
  Proof. apply (no_panic_flag_gen _ _ _ HI). Qed.

  Theorem never_forced_ltc : s_forced g = false.
  Proof. exact HF. Qed.
End LtsC.
