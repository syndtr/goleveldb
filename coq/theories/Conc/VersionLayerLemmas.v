(* Conc/VersionLayerLemmas.v — facts about the staging part of the version-layer model
   (Conc/VersionLayer.v): what versionStaging.commit + finish (spawn) and fillRecord compute, as sets
   of table numbers, for every record that respects the API discipline. *)
From Coq Require Import NArith List Bool Lia Permutation PeanoNat.
From GL Require Import Conc.RefLoop Conc.RefLoopLemmas Conc.VersionLayer.
From GL Require Mem.ListLemmas.
Import ListNotations.
Open Scope N_scope.

Lemma ldiff_nil_r : forall l, ldiff l [] = l.
Proof. induction l as [|a l IH]; cbn; auto. f_equal. exact IH. Qed.

Lemma ldiff_incl_nil : forall a b, incl a b -> ldiff a b = [].
Proof.
  induction a as [|x a IH]; intros b H; cbn; auto.
  assert (Hx : In x b) by (apply H; left; reflexivity). apply smem_In in Hx. rewrite Hx. cbn.
  apply IH. intros y Hy. apply H. right. exact Hy.
Qed.

Lemma perm_in_iff : forall (x : N) l l', Permutation l l' -> (In x l <-> In x l').
Proof. intros x l l' H. split; [apply Permutation_in; exact H | apply Permutation_in; apply Permutation_sym; exact H]. Qed.

Lemma map_eq_In : forall {A B C} (f : A -> C) (g : B -> C) l l' x,
  map f l = map g l' -> In x l -> exists y, In y l' /\ g y = f x.
Proof.
  intros A B C f g l l' x H Hx. apply (in_map f) in Hx. rewrite H in Hx. apply in_map_iff in Hx.
  destruct Hx as (y & Hy & Hin). eauto.
Qed.

Lemma map_filter_comm : forall {A B} (f : A -> B) (p : A -> bool) (q : B -> bool) l,
  (forall x, q (f x) = p x) -> map f (filter p l) = filter q (map f l).
Proof.
  intros A B f p q l H. induction l as [|x l IH]; cbn; auto. rewrite H. destruct (p x); cbn; rewrite IH; reflexivity.
Qed.

Lemma sdel_In : forall s k n, In n (sdel s k) <-> In n s /\ n <> k.
Proof.
  intros s k n. rewrite <- !smem_In. destruct (N.eq_dec k n) as [->|Hne].
  - rewrite smem_sdel_eq. split; [discriminate|intros [_ H]; congruence].
  - rewrite smem_sdel_neq by exact Hne. split; [intros H; split; auto|intros [H _]; exact H].
Qed.

Lemma sadd_In : forall s k n, In n (sadd s k) <-> n = k \/ In n s.
Proof.
  intros s k n. rewrite <- !smem_In. destruct (N.eq_dec k n) as [->|Hne].
  - rewrite smem_sadd_eq. split; auto.
  - rewrite smem_sadd_neq by exact Hne. split; [auto|intros [H|H]; [congruence|exact H]].
Qed.

Lemma tmem_In : forall l n, tmem l n = true <-> In n (map t_num l).
Proof.
  intros l n. unfold tmem. rewrite existsb_exists, in_map_iff. split.
  - intros (x & Hx & He). apply N.eqb_eq in He. exists x. auto.
  - intros (x & He & Hx). exists x. split; auto. apply N.eqb_eq. exact He.
Qed.

Lemma tdel_In : forall l m n, In n (map t_num (tdel l m)) <-> In n (map t_num l) /\ n <> m.
Proof.
  intros l m n. unfold tdel. rewrite !in_map_iff. split.
  - intros (x & He & Hx). apply filter_In in Hx. destruct Hx as [Hx Hf]. apply negb_true_iff, N.eqb_neq in Hf.
    split; [exists x; auto | congruence].
  - intros ((x & He & Hx) & Hne). exists x. split; auto. apply filter_In. split; auto.
    apply negb_true_iff, N.eqb_neq. congruence.
Qed.

Lemma tdel_cons : forall x l m, tdel (x :: l) m = if negb (t_num x =? m) then x :: tdel l m else tdel l m.
Proof. reflexivity. Qed.

Lemma tdel_NoDup : forall l m, NoDup (map t_num l) -> NoDup (map t_num (tdel l m)).
Proof. intros l m. apply ListLemmas.NoDup_map_filter. Qed.

Lemma filter_map_num : forall (g : N -> bool) (l : list tbl),
  map t_num (filter (fun t => g (t_num t)) l) = filter g (map t_num l).
Proof. intros g l. apply map_filter_comm. reflexivity. Qed.

Definition lnums (lv : levels) (i : nat) : list N := map t_num (nth i lv []).

Lemma flat_cons : forall x lv, flat (x :: lv) = map t_num x ++ flat lv.
Proof. reflexivity. Qed.

Lemma In_flat : forall lv n, In n (flat lv) <-> exists i, In n (lnums lv i).
Proof.
  induction lv as [|x lv IH]; intros n.
  - cbn. split; [tauto|]. intros [i H]. unfold lnums in H. destruct i; cbn in H; tauto.
  - rewrite flat_cons, in_app_iff, IH. split.
    + intros [H|[i H]]; [exists O; exact H | exists (S i); exact H].
    + intros [[|i] H]; [left; exact H | right; exists i; exact H].
Qed.

Lemma NoDup_flat : forall lv, NoDup (flat lv) <->
  (forall i, NoDup (lnums lv i)) /\
  (forall i j n, i <> j -> In n (lnums lv i) -> In n (lnums lv j) -> False).
Proof.
  induction lv as [|x lv IH].
  - split; [intros _; split | intros _; constructor].
    + intros i. unfold lnums. destruct i; cbn; constructor.
    + intros i j n _ H. unfold lnums in H. destruct i; cbn in H; tauto.
  - rewrite flat_cons, ListLemmas.NoDup_app_iff, IH. split.
    + intros (Hx & (Hl & Hd) & Hxl). split.
      * intros [|i]; [exact Hx | apply Hl].
      * intros [|i] [|j] n Hne Hi Hj.
        -- congruence.
        -- apply (Hxl n Hi). apply In_flat. exists j. exact Hj.
        -- apply (Hxl n Hj). apply In_flat. exists i. exact Hi.
        -- apply (Hd i j n); auto.
    + intros (Hl & Hd). split; [apply (Hl O)|]. split; [split|].
      * intros i. apply (Hl (S i)).
      * intros i j n Hne. apply (Hd (S i) (S j) n). congruence.
      * intros n Hn Hf. apply In_flat in Hf. destruct Hf as [j Hj]. apply (Hd O (S j) n); auto.
Qed.

Lemma nth_nil : forall {A} i (d : A), nth i [] d = d.
Proof. intros A i d. destruct i; reflexivity. Qed.

Lemma nth_trim : forall lv i, nth i (trim lv) [] = nth i lv ([] : list tbl).
Proof.
  induction lv as [|x lv IH]; intros i; [reflexivity|].
  cbn [trim]. destruct x as [|t x].
  - destruct (trim lv) as [|y tl] eqn:E.
    + rewrite nth_nil. destruct i; [reflexivity|]. cbn [nth]. rewrite <- IH. rewrite nth_nil. reflexivity.
    + destruct i; [reflexivity|]. cbn [nth]. apply IH.
  - destruct i; [reflexivity|]. cbn [nth]. apply IH.
Qed.

Lemma flat_trim_In : forall lv n, In n (flat (trim lv)) <-> In n (flat lv).
Proof. intros. rewrite !In_flat. unfold lnums. split; intros [i H]; exists i; [rewrite <- nth_trim | rewrite nth_trim]; exact H. Qed.

Lemma nth_map_seq : forall (f : nat -> list tbl) n i,
  nth i (map f (seq 0 n)) [] = if Nat.ltb i n then f i else [].
Proof.
  intros f n i. destruct (Nat.ltb_spec i n) as [Hlt|Hge].
  - rewrite (nth_indep _ [] (f O)) by (rewrite map_length, seq_length; exact Hlt).
    rewrite map_nth, seq_nth by exact Hlt. reflexivity.
  - apply nth_overflow. rewrite map_length, seq_length. exact Hge.
Qed.

Lemma finish_nth : forall t base p i,
  nth i (finish t base p) [] = finish_level t i (nth i base []) (nth i p sc_empty).
Proof.
  intros t base p i. unfold finish. rewrite nth_trim, nth_map_seq.
  destruct (Nat.ltb_spec i (Nat.max (length p) (length base))) as [Hlt|Hge]; [reflexivity|].
  rewrite (nth_overflow base) by lia. rewrite (nth_overflow p) by lia. reflexivity.
Qed.

Lemma upd_scratch_nth : forall l p f j,
  nth j (upd_scratch p l f) sc_empty = if Nat.eqb j l then f (nth l p sc_empty) else nth j p sc_empty.
Proof.
  induction l as [|l IH]; intros p f j.
  - destruct p as [|s p]; destruct j as [|j]; cbn; auto. destruct j; reflexivity.
  - destruct p as [|s p]; destruct j as [|j]; cbn [upd_scratch nth Nat.eqb]; auto.
    + rewrite IH. rewrite !nth_nil. reflexivity.
Qed.

Definition del_at (ds : list (N * N)) (i : nat) (n : N) : Prop :=
  exists l, In (l, n) ds /\ N.to_nat l = i.
Definition add_at (ads : list (N * tbl)) (i : nat) (n : N) : Prop :=
  exists l t, In (l, t) ads /\ N.to_nat l = i /\ t_num t = n.

Lemma del_at_cons : forall l m ds i n,
  del_at ((l, m) :: ds) i n <-> (N.to_nat l = i /\ n = m) \/ del_at ds i n.
Proof.
  intros. unfold del_at. split.
  - intros (l' & [He|Hin] & Hi); [inversion He; subst; auto|right; eauto].
  - intros [[Hi ->]|(l' & Hin & Hi)]; [exists l|exists l']; split; auto; [left|right]; auto.
Qed.

Lemma add_at_cons : forall l t ads i n,
  add_at ((l, t) :: ads) i n <-> (N.to_nat l = i /\ n = t_num t) \/ add_at ads i n.
Proof.
  intros. unfold add_at. split.
  - intros (l' & t' & [He|Hin] & Hi & Hn); [inversion He; subst; auto|right; eauto].
  - intros [[Hi ->]|(l' & t' & Hin & Hi)]; [exists l, t|exists l', t']; split; auto; [left|right]; auto.
Qed.

Lemma stage_del_fold_deleted : forall base ds p i n,
  In n (sc_deleted (nth i (fold_left (stage_del base) ds p) sc_empty)) <->
  In n (sc_deleted (nth i p sc_empty)) \/ (level_nonempty base i = true /\ del_at ds i n).
Proof.
  intros base. induction ds as [|[l m] ds IH]; intros p i n; cbn [fold_left].
  - split; [auto|]. intros [H|[_ (l & [] & _)]]. exact H.
  - rewrite IH, del_at_cons. unfold stage_del. cbn [fst snd]. rewrite upd_scratch_nth.
    destruct (Nat.eqb_spec i (N.to_nat l)) as [->|Hne]; [|intuition congruence].
    cbn [sc_deleted]. destruct (level_nonempty base (N.to_nat l)); [rewrite sadd_In|]; intuition congruence.
Qed.

Lemma stage_del_fold_added : forall base ds p,
  (forall j, sc_added (nth j p sc_empty) = []) ->
  forall j, sc_added (nth j (fold_left (stage_del base) ds p) sc_empty) = [].
Proof.
  intros base. induction ds as [|[l m] ds IH]; intros p H j; cbn [fold_left]; [apply H|].
  apply IH. intros k. unfold stage_del. cbn [fst snd]. rewrite upd_scratch_nth.
  destruct (Nat.eqb k (N.to_nat l)); [|apply H]. cbn [sc_added]. rewrite H. reflexivity.
Qed.

Lemma stage_add_fold : forall ads p i,
  (forall n, In n (map t_num (sc_added (nth i (fold_left stage_add ads p) sc_empty))) <->
             In n (map t_num (sc_added (nth i p sc_empty))) \/ add_at ads i n) /\
  (forall n, In n (sc_deleted (nth i (fold_left stage_add ads p) sc_empty)) <->
             In n (sc_deleted (nth i p sc_empty)) /\ ~ add_at ads i n) /\
  (NoDup (map t_num (sc_added (nth i p sc_empty))) ->
   NoDup (map t_num (sc_added (nth i (fold_left stage_add ads p) sc_empty)))).
Proof.
  induction ads as [|[l t] ads IH]; intros p i; cbn [fold_left].
  - split; [|split]; auto.
    + intros n. split; [auto|]. intros [H|(l & t & [] & _)]. exact H.
    + intros n. split; [intros H; split; auto; intros (l & t & [] & _)|intros [H _]; exact H].
  - destruct (IH (stage_add p (l, t)) i) as (IA & ID & IN). clear IH.
    assert (Hnth : nth i (stage_add p (l, t)) sc_empty =
                   if Nat.eqb i (N.to_nat l)
                   then {| sc_added := t :: tdel (sc_added (nth (N.to_nat l) p sc_empty)) (t_num t);
                           sc_deleted := sdel (sc_deleted (nth (N.to_nat l) p sc_empty)) (t_num t) |}
                   else nth i p sc_empty).
    { unfold stage_add. cbn [fst snd]. apply upd_scratch_nth. }
    split; [|split].
    + intros n. rewrite IA, Hnth, add_at_cons. destruct (Nat.eqb_spec i (N.to_nat l)) as [->|Hne]; [|intuition congruence].
      cbn [sc_added map In]. rewrite tdel_In. destruct (N.eq_dec n (t_num t)); intuition congruence.
    + intros n. rewrite ID, Hnth, add_at_cons. destruct (Nat.eqb_spec i (N.to_nat l)) as [->|Hne]; [|intuition congruence].
      cbn [sc_deleted]. rewrite sdel_In. intuition congruence.
    + intros Hnd. apply IN. rewrite Hnth. destruct (Nat.eqb_spec i (N.to_nat l)) as [->|Hne]; [|exact Hnd].
      cbn [sc_added map]. constructor; [|apply tdel_NoDup; exact Hnd].
      intros Hi. apply tdel_In in Hi. destruct Hi as [_ Hi]. congruence.
Qed.

Lemma insert_by_perm : forall le x l, Permutation (insert_by le x l) (x :: l).
Proof.
  induction l as [|y l IH]; cbn; auto. destruct (le x y); auto.
  eapply perm_trans; [apply perm_skip; exact IH|apply perm_swap].
Qed.

Lemma sort_by_perm : forall le l, Permutation (sort_by le l) l.
Proof.
  induction l as [|x l IH]; cbn; auto.
  eapply perm_trans; [apply insert_by_perm|]. apply perm_skip. exact IH.
Qed.

Lemma insert_at_perm : forall nt i b, Permutation (insert_at nt i b) (nt ++ b).
Proof.
  intros nt i b. unfold insert_at. rewrite <- (firstn_skipn i nt) at 3. rewrite <- app_assoc.
  apply Permutation_app_head. apply Permutation_app_comm.
Qed.

Definition keepb (s : scratch) (n : N) : bool := negb (smem (sc_deleted s) n) && negb (tmem (sc_added s) n).

Lemma finish_level_perm : forall t lvl base s,
  Permutation (finish_level t lvl base s) (filter (fun x => keepb s (t_num x)) base ++ sc_added s).
Proof.
  intros t lvl base s. unfold finish_level, keepb.
  destruct (sc_added s) as [|a ads] eqn:Ea; destruct (sc_deleted s) as [|d ds] eqn:Ed.
  - rewrite app_nil_r. rewrite ListLemmas.filter_all; [apply Permutation_refl|]. intros x _. reflexivity.
  - rewrite app_nil_r. apply Permutation_refl.
  - destruct t.
    + destruct lvl; (eapply perm_trans; [apply insert_at_perm|]; apply Permutation_app_head; apply sort_by_perm).
    + destruct lvl; apply sort_by_perm.
  - destruct t.
    + destruct lvl; (eapply perm_trans; [apply insert_at_perm|]; apply Permutation_app_head; apply sort_by_perm).
    + destruct lvl; apply sort_by_perm.
Qed.

Lemma finish_level_nums : forall t lvl base s,
  Permutation (map t_num (finish_level t lvl base s))
              (filter (keepb s) (map t_num base) ++ map t_num (sc_added s)).
Proof.
  intros. eapply perm_trans; [apply Permutation_map; apply finish_level_perm|].
  rewrite map_app, filter_map_num. apply Permutation_refl.
Qed.

Section Spawn.
  Variables (base : levels) (r : srec) (tr : bool).
  Hypothesis Hbase : NoDup (flat base).
  Hypothesis Hadd_nd : NoDup (added_nums r).
  Hypothesis Hdel_in : forall l n, In (l, n) (r_deleted r) -> In n (lnums base (N.to_nat l)).
  Hypothesis Hadd_new : forall n, In n (added_nums r) -> In n (deleted_nums r) \/ ~ In n (flat base).

  Let P := stage_commit base [] r.
  Let S (i : nat) := nth i P sc_empty.
  Let A (i : nat) (n : N) := add_at (r_added r) i n.
  Let D (i : nat) (n : N) := del_at (r_deleted r) i n.

  Lemma sp_added : forall i n, In n (map t_num (sc_added (S i))) <-> A i n.
  Proof.
    intros i n. unfold S, P, stage_commit.
    destruct (stage_add_fold (r_added r) (fold_left (stage_del base) (r_deleted r) []) i) as (IA & _ & _).
    rewrite IA. rewrite stage_del_fold_added by (intros j; rewrite nth_nil; reflexivity).
    cbn. unfold A. tauto.
  Qed.

  Lemma sp_added_nd : forall i, NoDup (map t_num (sc_added (S i))).
  Proof.
    intros i. unfold S, P, stage_commit.
    destruct (stage_add_fold (r_added r) (fold_left (stage_del base) (r_deleted r) []) i) as (_ & _ & IN).
    apply IN. rewrite stage_del_fold_added by (intros j; rewrite nth_nil; reflexivity). constructor.
  Qed.

  Lemma sp_deleted : forall i n, In n (sc_deleted (S i)) <-> level_nonempty base i = true /\ D i n /\ ~ A i n.
  Proof.
    intros i n. unfold S, P, stage_commit.
    destruct (stage_add_fold (r_added r) (fold_left (stage_del base) (r_deleted r) []) i) as (_ & ID & _).
    rewrite ID, stage_del_fold_deleted. rewrite nth_nil. cbn. unfold A, D. tauto.
  Qed.

  Lemma A_added : forall i n, A i n -> In n (added_nums r).
  Proof.
    intros i n (l & t & Hin & _ & Hn). unfold added_nums. apply in_map_iff. exists (l, t). auto.
  Qed.

  Lemma added_A : forall n, In n (added_nums r) -> exists i, A i n.
  Proof.
    intros n H. unfold added_nums in H. apply in_map_iff in H. destruct H as ([l t] & Hn & Hin).
    exists (N.to_nat l), l, t. auto.
  Qed.

  Lemma A_level : forall i j n, A i n -> A j n -> i = j.
  Proof.
    intros i j n (l & t & Hin & Hl & Hn) (l' & t' & Hin' & Hl' & Hn').
    assert (Heq : (l, t) = (l', t')).
    { revert Hadd_nd Hin Hin' Hn Hn'. unfold added_nums. generalize (r_added r) as ads.
      induction ads as [|x ads IH]; cbn; [tauto|]. intros Hnd H1 H2 E1 E2. inversion Hnd as [|? ? Hni Hnd']; subst.
      destruct H1 as [->|H1]; destruct H2 as [->|H2]; auto.
      - exfalso. apply Hni. apply in_map_iff. exists (l', t'). cbn. split; [congruence|exact H2].
      - exfalso. apply Hni. apply in_map_iff. exists (l, t). cbn. split; [congruence|exact H1]. }
    inversion Heq; subst. reflexivity.
  Qed.

  Lemma D_deleted : forall i n, D i n -> In n (deleted_nums r) /\ In n (lnums base i).
  Proof.
    intros i n (l & Hin & Hl). split.
    - unfold deleted_nums. apply in_map_iff. exists (l, n). auto.
    - rewrite <- Hl. apply Hdel_in. exact Hin.
  Qed.

  Lemma deleted_D : forall n, In n (deleted_nums r) -> exists i, D i n.
  Proof.
    intros n H. unfold deleted_nums in H. apply in_map_iff in H. destruct H as ([l m] & Hn & Hin).
    cbn in Hn. subst. exists (N.to_nat l), l. auto.
  Qed.

  Lemma lnums_nonempty : forall i n, In n (lnums base i) -> level_nonempty base i = true.
  Proof. intros i n H. unfold level_nonempty, lnums in *. destruct (nth i base []); [destruct H|reflexivity]. Qed.

  (* the numbers of level i of the spawned version *)
  Lemma spawn_level : forall i n,
    In n (lnums (spawn base r tr) i) <->
    (In n (lnums base i) /\ ~ In n (sc_deleted (S i)) /\ ~ A i n) \/ A i n.
  Proof.
    intros i n. unfold lnums, spawn. fold P. rewrite finish_nth. fold (S i).
    rewrite (perm_in_iff n _ _ (finish_level_nums tr i (nth i base []) (S i))).
    rewrite in_app_iff, filter_In, sp_added. unfold keepb.
    rewrite andb_true_iff, !negb_true_iff, <- !not_true_iff_false, smem_In, tmem_In, sp_added. tauto.
  Qed.

  Lemma base_level_unique : forall i j n, In n (lnums base i) -> In n (lnums base j) -> i = j.
  Proof.
    intros i j n Hi Hj. destruct (Nat.eq_dec i j) as [|Hne]; auto. exfalso.
    apply NoDup_flat in Hbase. destruct Hbase as [_ Hd]. apply (Hd i j n); auto.
  Qed.

  Lemma spawn_In : forall n,
    In n (flat (spawn base r tr)) <-> (In n (flat base) /\ ~ In n (deleted_nums r)) \/ In n (added_nums r).
  Proof.
    intros n. rewrite In_flat. split.
    - intros [i Hi]. apply spawn_level in Hi. destruct Hi as [(Hb & Hnd & Hna)|Ha].
      + left. split; [apply In_flat; exists i; exact Hb|]. intros Hd. apply deleted_D in Hd. destruct Hd as [j Hj].
        assert (j = i) by (apply (base_level_unique j i n); [apply D_deleted; exact Hj|exact Hb]). subst j.
        apply Hnd. apply sp_deleted. split; [apply (lnums_nonempty i n Hb)|]. split; auto.
      + right. apply (A_added i n Ha).
    - intros [[Hb Hnd]|Ha].
      + destruct (in_dec N.eq_dec n (added_nums r)) as [Ha|Hna].
        * apply added_A in Ha. destruct Ha as [i Hi]. exists i. apply spawn_level. right. exact Hi.
        * apply In_flat in Hb. destruct Hb as [i Hi]. exists i. apply spawn_level. left. split; [exact Hi|]. split.
          -- intros Hd. apply sp_deleted in Hd. destruct Hd as (_ & Hd & _). apply Hnd. apply (D_deleted i n Hd).
          -- intros Ha. apply Hna. apply (A_added i n Ha).
      + apply added_A in Ha. destruct Ha as [i Hi]. exists i. apply spawn_level. right. exact Hi.
  Qed.

  Lemma spawn_NoDup : NoDup (flat (spawn base r tr)).
  Proof.
    apply NoDup_flat. split.
    - intros i. unfold lnums, spawn. fold P. rewrite finish_nth. fold (S i).
      eapply Permutation_NoDup; [apply Permutation_sym; apply finish_level_nums|].
      apply ListLemmas.NoDup_app_iff. split; [|split].
      + apply NoDup_filter. apply NoDup_flat in Hbase. destruct Hbase as [Hl _]. apply (Hl i).
      + apply sp_added_nd.
      + intros x Hx Ha. apply filter_In in Hx. destruct Hx as [_ Hk]. unfold keepb in Hk.
        apply andb_true_iff in Hk. destruct Hk as [_ Hk]. apply negb_true_iff in Hk.
        apply tmem_In in Ha. congruence.
    - intros i j n Hne Hi Hj. apply spawn_level in Hi. apply spawn_level in Hj.
      assert (Hmix : forall a b, a <> b -> In n (lnums base a) -> ~ In n (sc_deleted (S a)) -> ~ A a n -> A b n -> False).
      { intros a b Hab Hb Hnd Hna Hab'.
        destruct (Hadd_new n (A_added b n Hab')) as [Hd|Hnb]; [|apply Hnb; apply In_flat; exists a; exact Hb].
        apply deleted_D in Hd. destruct Hd as [k Hk].
        assert (k = a) by (apply (base_level_unique k a n); [apply D_deleted; exact Hk|exact Hb]). subst k.
        apply Hnd. apply sp_deleted. split; [apply (lnums_nonempty a n Hb)|]. split; auto. }
      destruct Hi as [(Hbi & Hndi & Hnai)|Hai]; destruct Hj as [(Hbj & Hndj & Hnaj)|Haj].
      + apply Hne. apply (base_level_unique i j n); auto.
      + apply (Hmix i j); auto.
      + apply (Hmix j i); auto.
      + apply Hne. apply (A_level i j n); auto.
  Qed.
End Spawn.

Lemma fill_levels_nums : forall listed lv k,
  map (fun x => t_num (snd x)) (fill_levels listed k lv) = ldiff (flat lv) listed.
Proof.
  intros listed. induction lv as [|tables lv IH]; intros k; [reflexivity|].
  cbn [fill_levels]. rewrite map_app, IH, flat_cons. unfold ldiff. rewrite filter_app. f_equal.
  rewrite map_map. cbn [snd]. apply (filter_map_num (fun n => negb (smem listed n))).
Qed.

Lemma fill_record_added : forall r lv,
  added_nums (fill_record r lv) = added_nums r ++ ldiff (flat lv) (added_nums r).
Proof. intros. unfold added_nums, fill_record. cbn [r_added]. rewrite map_app. f_equal. apply fill_levels_nums. Qed.

Lemma fill_record_deleted : forall r lv, deleted_nums (fill_record r lv) = deleted_nums r.
Proof. reflexivity. Qed.
