(* Conc/LocksProofs.v — proofs about the blocking skeleton Conc/Locks.v.
   Layer 1 (fixed variant): lock ownership is determined by the program counters (=> locks_balanced_lts).
   Layer 2 (fixed variant): every wait has an exit (static check of the control-flow graphs).
   (Layer 3, the invariants of the rendezvous protocols and deadlock freedom: Conc/LocksDeadlock.v.)
   At the end: for each of the repairs D4a, D4b, D4c, D7, D8 the variant without it ([unfixed_*]) and a schedule on
   which that variant leaks a lock while the fixed one does not ([*_leaks_refuted]; unfixed_D9 is used in
   Conc/LocksClose.v); and a run through the read-only branch of the compaction goroutines. *)
From GL Require Import Conc.Locks.

Ltac dparams :=
  repeat match goal with
  | x : bool |- _ => destruct x
  | x : bg |- _ => destruct x
  | x : ctx |- _ => destruct x
  | x : r3 |- _ => destruct x
  | x : errk |- _ => destruct x
  | x : rsite |- _ => destruct x
  | x : tsite |- _ => destruct x
  | x : tk |- _ => destruct x
  | x : xkind |- _ => destruct x
  end.

(* what a label requires of / does to the write-lock ownership of the process that performs it *)
Definition dW (l : lbl) : option (bool * bool) :=
  match l with
  | LAcqW | LAcqWRO => Some (false, true)
  | LRelW | LRelWU | LGiveW | LWToTr | LSendErrSetRO => Some (true, false)
  | LAcqWClose => Some (false, false)
  | _ => None
  end.
Definition dC (l : lbl) : option (bool * bool) :=
  match l with LLockC => Some (false, true) | LUnlockC => Some (true, false) | _ => None end.

Definition chk {A} (f : A -> bool) (d : option (bool * bool)) (pc pc' : A) : bool :=
  match d with
  | Some (a, b) => Bool.eqb (f pc) a && Bool.eqb (f pc') b
  | None => Bool.eqb (f pc) (f pc')
  end.

Definition client_lbl (l : lbl) : bool :=
  match l with
  | LSendErrSet _ | LSendPause | LRecvResume | LAck _ | LEnqueue | LAckQ _ | LQEmpty => false
  | _ => true
  end.

(* Close has taken the write lock *)
Definition closer_has (pc : cpc) : bool := match pc with CL5 | CL6 => true | _ => false end.

Definition cedge1_ok (pc : cpc) (e : lbl * cpc) : bool :=
  let (l, pc') := e in
  client_lbl l &&
  (match l with LIfMemNil => negb (cW pc') || Bool.eqb (cW pc) (cW pc') | _ => chk cW (dW l) pc pc' end) &&
  chk cC (dC l) pc pc' &&
  match l with LLockT => cTl pc' | LUnlockT => true | _ => implb (cTl pc) (cTl pc') end &&
  implb (closer_has pc') (closer_has pc || match l with LAcqWClose => true | _ => false end) &&
  match l with LClearMems => closer_has pc | _ => true end &&
  match l with LAckOne | LGiveW | LMergeRecv _ | LMergedTrue => cW pc | _ => true end.

Definition bg_lbl (l : lbl) : bool :=
  match l with
  | LTau | LIfClosed _ | LSeeClosed | LRecvPerr | LSendErrSet _ | LLockC | LUnlockC | LCommitOk | LCommitFailW
  | LSendPause | LRecvResume | LTrySendCmd BT | LAck _ | LEnqueue | LAckQ _ | LQEmpty => true
  | _ => false
  end.
Definition medge1_ok (pc : mpc) (e : lbl * mpc) : bool :=
  let (l, pc') := e in chk mC (dC l) pc pc' && bg_lbl l.
Definition tedge1_ok (pc : tpc) (e : lbl * tpc) : bool :=
  let (l, pc') := e in chk tC (dC l) pc pc' && bg_lbl l.

Lemma cedges1_ok : forall pc, forallb (cedge1_ok pc) (cedges fixed pc) = true.
Proof. intro pc; destruct pc; dparams; reflexivity. Qed.
Lemma medges1_ok : forall pc, forallb (medge1_ok pc) (medges pc) = true.
Proof. intro pc; destruct pc; dparams; reflexivity. Qed.
Lemma tedges1_ok : forall pc, forallb (tedge1_ok pc) (tedges pc) = true.
Proof. intro pc; destruct pc; dparams; reflexivity. Qed.

Lemma nth_forallb : forall {A} (f : A -> bool) l k x, forallb f l = true -> nth_error l k = Some x -> f x = true.
Proof.
  intros A f l k x H N. apply nth_error_In in N. rewrite forallb_forall in H. auto.
Qed.

(* the acknowledged waiter keeps what it held *)
Lemma after_ack_cW : forall ok pc, cW (after_ack ok pc) = cW pc.
Proof. intros ok pc; destruct pc; try reflexivity; dparams; reflexivity. Qed.
Lemma after_ack_cC : forall ok pc, cC (after_ack ok pc) = cC pc.
Proof. intros ok pc; destruct pc; try reflexivity; dparams; reflexivity. Qed.
Lemma after_ack_closer : forall ok pc, closer_has (after_ack ok pc) = true -> closer_has pc = true.
Proof. intros ok pc; destruct pc; try (intro; assumption); dparams; simpl; auto. Qed.
Lemma after_ack_cTl : forall ok pc, cTl pc = true -> cTl (after_ack ok pc) = true.
Proof. intros ok pc; destruct pc; try (intro; assumption); dparams; simpl; auto. Qed.

Record inv1 (s : state) : Prop := {
  i1_W : forall i, wl_is s (PCli i) = cW (cli s i);
  i1_WM : wl_is s PM = false;
  i1_WT : wl_is s PT = false;
  i1_WCE : wl_is s PCE = locking s;
  i1_C : forall i, cl_is s (PCli i) = cC (cli s i);
  i1_CM : cl_is s PM = mC (mc s);
  i1_CT : cl_is s PT = tC (tc s);
  i1_CCE : cl_is s PCE = false;
  i1_T : forall i, tl s = Some i -> cTl (cli s i) = true;
  i1_CL : forall i, closer_has (cli s i) = true -> wl s = WClosed;
  i1_mem : memclr s = true -> wl s = WClosed
}.

Lemma inv1_init : inv1 init.
Proof. constructor; intros; try reflexivity; discriminate. Qed.

Lemma upd_same : forall {A} (f : nat -> A) i a, upd f i a i = a.
Proof. intros; unfold upd; rewrite Nat.eqb_refl; reflexivity. Qed.
Lemma upd_other : forall {A} (f : nat -> A) i j a, j <> i -> upd f i a j = f j.
Proof. intros; unfold upd; destruct (Nat.eqb j i) eqn:E; [apply Nat.eqb_eq in E; congruence | reflexivity]. Qed.
Lemma upd_cases : forall {A} (f : nat -> A) i a j, (j <> i /\ upd f i a j = f j) \/ (j = i /\ upd f i a j = a).
Proof.
  intros A f i a j. destruct (Nat.eq_dec j i) as [-> | NE]; [right | left]; split; auto.
  - apply upd_same.
  - apply upd_other; auto.
Qed.

(* deliver changes nothing that layer 1 looks at, except moving a waiter along after_ack *)
Lemma deliver_fields : forall b ok w s,
  wl (deliver b ok w s) = wl s /\ cl (deliver b ok w s) = cl s /\ tl (deliver b ok w s) = tl s /\
  locking (deliver b ok w s) = locking s /\ mc (deliver b ok w s) = mc s /\ tc (deliver b ok w s) = tc s /\
  memclr (deliver b ok w s) = memclr s /\
  (forall j, cli (deliver b ok w s) j = cli s j \/ cli (deliver b ok w s) j = after_ack ok (cli s j)).
Proof.
  intros b ok [i n] s; unfold deliver.
  destruct (is_trigw b (cli s i) && Nat.eqb (ctk s i) n); simpl; repeat split; auto.
  intro j; unfold upd; destruct (Nat.eqb j i) eqn:E; auto. apply Nat.eqb_eq in E; subst; auto.
Qed.

Lemma inv1_deliver : forall b ok w s, inv1 s -> inv1 (deliver b ok w s).
Proof.
  intros b ok w s I. destruct (deliver_fields b ok w s) as (Hw & Hc & Ht & Hl & Hm & Htc & Hmem & Hcli).
  destruct I; constructor; unfold wl_is, cl_is in *; rewrite ?Hw, ?Hc, ?Ht, ?Hl, ?Hm, ?Htc, ?Hmem; auto.
  - intro i; destruct (Hcli i) as [E | E]; rewrite E, ?after_ack_cW; auto.
  - intro i; destruct (Hcli i) as [E | E]; rewrite E, ?after_ack_cC; auto.
  - intros i Hi; destruct (Hcli i) as [E | E]; rewrite E; auto using after_ack_cTl.
  - intros i Hi; destruct (Hcli i) as [E | E]; rewrite E in Hi; eauto using after_ack_closer.
Qed.

Definition wis (w : wlock) (p : who) : bool := match w with WHeld q => who_eqb q p | _ => false end.
Lemma wl_is_wis : forall s p, wl_is s p = wis (wl s) p. Proof. reflexivity. Qed.

Lemma who_eqb_refl : forall p, who_eqb p p = true.
Proof. destruct p; simpl; auto using Nat.eqb_refl. Qed.
Lemma who_eqb_eq : forall p q, who_eqb p q = true -> p = q.
Proof. destruct p, q; simpl; intros; try discriminate; auto. apply Nat.eqb_eq in H; subst; auto. Qed.

(* only the program counter of client i changes *)
Lemma inv1_set_pc : forall s i pc',
  inv1 s -> cW pc' = cW (cli s i) -> cC pc' = cC (cli s i) ->
  (cTl (cli s i) = true -> cTl pc' = true) ->
  (closer_has pc' = true -> closer_has (cli s i) = true) ->
  inv1 (set_pc s i pc').
Proof.
  intros s i pc' [IW IWM IWT IWCE IC ICM ICT ICCE IT ICL IMEM] HW HC HT HCL.
  constructor; simpl; auto.
  - intro j. unfold upd. destruct (Nat.eqb j i) eqn:E; [apply Nat.eqb_eq in E; subst; rewrite HW|]; apply IW.
  - intro j. unfold upd. destruct (Nat.eqb j i) eqn:E; [apply Nat.eqb_eq in E; subst; rewrite HC|]; apply IC.
  - intros j Hj. unfold upd. destruct (Nat.eqb j i) eqn:E; [apply Nat.eqb_eq in E; subst; auto|]; auto.
  - intros j. unfold upd. destruct (Nat.eqb j i) eqn:E; [apply Nat.eqb_eq in E; subst; eauto|]; eauto.
Qed.

(* the fields layer 1 looks at *)
Definition same1 (s s' : state) : Prop :=
  wl s' = wl s /\ cl s' = cl s /\ tl s' = tl s /\ locking s' = locking s /\ memclr s' = memclr s /\
  mc s' = mc s /\ tc s' = tc s /\ cli s' = cli s.
Lemma inv1_frame : forall s s', same1 s s' -> inv1 s -> inv1 s'.
Proof.
  intros s s' (A & B & C & D & E & F & G & H) [IW IWM IWT IWCE IC ICM ICT ICCE IT ICL IMEM].
  constructor; unfold wl_is, cl_is in *; rewrite ?A, ?B, ?C, ?D, ?E, ?F, ?G, ?H; auto.
Qed.

(* the write lock changes hands together with the program counter of client i *)
Lemma inv1_W_change : forall s i pc' w' lk',
  inv1 s ->
  (forall j, j <> i -> wis w' (PCli j) = wl_is s (PCli j)) ->
  wis w' (PCli i) = cW pc' -> wis w' PM = false -> wis w' PT = false -> wis w' PCE = lk' ->
  cC pc' = cC (cli s i) -> (cTl (cli s i) = true -> cTl pc' = true) ->
  (wl s = WClosed -> w' = WClosed) -> (closer_has pc' = true -> w' = WClosed) ->
  inv1 (set_locking (set_pc (set_wl s w') i pc') lk').
Proof.
  intros s i pc' w' lk' [IW IWM IWT IWCE IC ICM ICT ICCE IT ICL IMEM] H1 H2 H3 H4 H5 HC HT HCL1 HCL2.
  constructor; simpl; unfold wl_is, cl_is in *; simpl; auto.
  - intro j. unfold upd. destruct (Nat.eqb j i) eqn:E.
    + apply Nat.eqb_eq in E; subst; auto.
    + apply Nat.eqb_neq in E. rewrite <- IW. apply H1; auto.
  - intro j. unfold upd. destruct (Nat.eqb j i) eqn:E; [apply Nat.eqb_eq in E; subst; rewrite HC|]; apply IC.
  - intros j Hj. unfold upd. destruct (Nat.eqb j i) eqn:E; [apply Nat.eqb_eq in E; subst; auto|]; auto.
  - intros j. unfold upd. destruct (Nat.eqb j i) eqn:E; [apply Nat.eqb_eq in E; subst; eauto|]; eauto.
Qed.

Lemma inv1_W_change' : forall s i pc' w',
  inv1 s ->
  (forall j, j <> i -> wis w' (PCli j) = wl_is s (PCli j)) ->
  wis w' (PCli i) = cW pc' -> wis w' PM = false -> wis w' PT = false -> wis w' PCE = locking s ->
  cC pc' = cC (cli s i) -> (cTl (cli s i) = true -> cTl pc' = true) ->
  (wl s = WClosed -> w' = WClosed) -> (closer_has pc' = true -> w' = WClosed) ->
  inv1 (set_pc (set_wl s w') i pc').
Proof.
  intros. eapply inv1_frame; [| eapply (inv1_W_change s i pc' w' (locking s)); eauto].
  repeat split; reflexivity.
Qed.

Definition cis (c : option who) (p : who) : bool := match c with Some q => who_eqb q p | None => false end.

Lemma inv1_C_change : forall s i pc' c',
  inv1 s ->
  (forall j, j <> i -> cis c' (PCli j) = cl_is s (PCli j)) ->
  cis c' (PCli i) = cC pc' -> cis c' PM = mC (mc s) -> cis c' PT = tC (tc s) -> cis c' PCE = false ->
  cW pc' = cW (cli s i) -> (cTl (cli s i) = true -> cTl pc' = true) ->
  (closer_has pc' = true -> closer_has (cli s i) = true) ->
  inv1 (set_pc (set_cl s c') i pc').
Proof.
  intros s i pc' c' [IW IWM IWT IWCE IC ICM ICT ICCE IT ICL IMEM] H1 H2 H3 H4 H5 HW HT HCL.
  constructor; simpl; unfold wl_is, cl_is in *; simpl; auto.
  - intro j. unfold upd. destruct (Nat.eqb j i) eqn:E; [apply Nat.eqb_eq in E; subst; rewrite HW|]; apply IW.
  - intro j. unfold upd. destruct (Nat.eqb j i) eqn:E.
    + apply Nat.eqb_eq in E; subst; auto.
    + apply Nat.eqb_neq in E. rewrite <- IC. apply H1; auto.
  - intros j Hj. unfold upd. destruct (Nat.eqb j i) eqn:E; [apply Nat.eqb_eq in E; subst; auto|]; auto.
  - intros j. unfold upd. destruct (Nat.eqb j i) eqn:E; [apply Nat.eqb_eq in E; subst; eauto|]; eauto.
Qed.

Lemma inv1_T_change : forall s i pc' t',
  inv1 s ->
  (t' = Some i -> cTl pc' = true) -> (forall j, j <> i -> t' = Some j -> tl s = Some j) ->
  cW pc' = cW (cli s i) -> cC pc' = cC (cli s i) ->
  (closer_has pc' = true -> closer_has (cli s i) = true) ->
  inv1 (set_pc (set_tl s t') i pc').
Proof.
  intros s i pc' t' [IW IWM IWT IWCE IC ICM ICT ICCE IT ICL IMEM] H1 H2 HW HC HCL.
  constructor; simpl; unfold wl_is, cl_is in *; simpl; auto.
  - intro j. unfold upd. destruct (Nat.eqb j i) eqn:E; [apply Nat.eqb_eq in E; subst; rewrite HW|]; apply IW.
  - intro j. unfold upd. destruct (Nat.eqb j i) eqn:E; [apply Nat.eqb_eq in E; subst; rewrite HC|]; apply IC.
  - intros j Hj. unfold upd. destruct (Nat.eqb j i) eqn:E; [apply Nat.eqb_eq in E; subst; auto|].
    apply Nat.eqb_neq in E. auto.
  - intros j. unfold upd. destruct (Nat.eqb j i) eqn:E; [apply Nat.eqb_eq in E; subst; eauto|]; eauto.
Qed.

Lemma inv1_set_mc : forall s pc', inv1 s -> mC pc' = mC (mc s) -> inv1 (set_mc s pc').
Proof.
  intros s pc' [IW IWM IWT IWCE IC ICM ICT ICCE IT ICL IMEM] H.
  constructor; simpl; unfold wl_is, cl_is in *; simpl; auto. rewrite H; auto.
Qed.
Lemma inv1_set_tc : forall s pc', inv1 s -> tC pc' = tC (tc s) -> inv1 (set_tc s pc').
Proof.
  intros s pc' [IW IWM IWT IWCE IC ICM ICT ICCE IT ICL IMEM] H.
  constructor; simpl; unfold wl_is, cl_is in *; simpl; auto. rewrite H; auto.
Qed.

Lemma implb_elim : forall a b, implb a b = true -> a = true -> b = true.
Proof. destruct a, b; simpl; auto. Qed.

Lemma implb_or : forall a b c, implb a (b || c) = true -> a = true -> b = true \/ c = true.
Proof. intros a b c H X. apply orb_prop. exact (implb_elim _ _ H X). Qed.
Lemma implb_and : forall a b c, implb a (b && c) = true -> a = true -> b = true /\ c = true.
Proof. intros a b c H X. apply andb_prop. exact (implb_elim _ _ H X). Qed.

Ltac bsplit := repeat match goal with
  | H : _ && _ = true |- _ => apply andb_prop in H; destruct H
  | H : Bool.eqb _ _ = true |- _ => apply Bool.eqb_prop in H
  | H : guard ?b _ = Some _ |- _ => unfold guard in H; destruct b eqn:?; [|discriminate]
  | H : Some _ = Some _ |- _ => inversion H; subst; clear H
  | H : None = Some _ |- _ => discriminate
  | H : false = true |- _ => discriminate
  | H : match ?x with _ => _ end = Some _ |- _ => destruct x eqn:?
  end.

(* what an edge with a lock label requires of and gives to its end points *)
Lemma cedge1_dW : forall pc l pc' a b, cedge1_ok pc (l, pc') = true -> dW l = Some (a, b) -> cW pc = a /\ cW pc' = b.
Proof.
  intros pc l pc' a b H D. unfold cedge1_ok in H. bsplit.
  destruct l; try discriminate D; inversion D; subst; unfold chk in *; simpl in *; bsplit; auto.
Qed.
Lemma cedge1_dC : forall pc l pc' a b, cedge1_ok pc (l, pc') = true -> dC l = Some (a, b) -> cC pc = a /\ cC pc' = b.
Proof.
  intros pc l pc' a b H D. unfold cedge1_ok in H. bsplit.
  destruct l; try discriminate D; inversion D; subst; unfold chk in *; simpl in *; bsplit; auto.
Qed.

Ltac frame := match goal with
  | I : inv1 ?s |- inv1 ?s' => apply (inv1_frame s s'); [repeat split; reflexivity | exact I]
  end.

(* side conditions of the helper lemmas *)
Ltac side :=
  try assumption; try (symmetry; assumption);
  try (match goal with H : implb ?a ?b = true |- ?a = true -> ?b = true => exact (implb_elim _ _ H) end);
  try (match goal with H : implb ?a (?b || false) = true |- ?a = true -> ?b = true =>
         let X := fresh in let Y := fresh in
         intro X; pose proof (implb_elim _ _ H X) as Y; rewrite orb_false_r in Y; exact Y end);
  auto.

(* the program counters of a partner j and of client i change *)
Lemma inv1_set_pc2 : forall s i j pj' pc', j <> i ->
  inv1 s ->
  cW pj' = cW (cli s j) -> cC pj' = cC (cli s j) -> (cTl (cli s j) = true -> cTl pj' = true) ->
  (closer_has pj' = true -> closer_has (cli s j) = true) ->
  cW pc' = cW (cli s i) -> cC pc' = cC (cli s i) -> (cTl (cli s i) = true -> cTl pc' = true) ->
  (closer_has pc' = true -> closer_has (cli s i) = true) ->
  inv1 (set_pc (set_pc s j pj') i pc').
Proof.
  intros. apply inv1_set_pc; [apply inv1_set_pc; auto | ..]; simpl; rewrite upd_other by auto; auto.
Qed.

Lemma wl_is_true : forall s p, wl_is s p = true -> wl s = WHeld p.
Proof. unfold wl_is; intros s p H; destruct (wl s); try discriminate. apply who_eqb_eq in H; subst; auto. Qed.
Lemma wl_free_true : forall s, wl_free s = true -> wl s = WFree.
Proof. unfold wl_free; intros s H; destruct (wl s); try discriminate; auto. Qed.
Lemma cl_is_true : forall s p, cl_is s p = true -> cl s = Some p.
Proof. unfold cl_is; intros s p H; destruct (cl s); try discriminate. apply who_eqb_eq in H; subst; auto. Qed.
Lemma is_none_true : forall {A} (o : option A), is_none o = true -> o = None.
Proof. destruct o; simpl; intros; try discriminate; auto. Qed.

(* hand-over of the write lock from client i to the overflow writer n *)
Lemma inv1_give : forall s i n pc',
  inv1 s -> wl s = WHeld (PCli i) -> cli s n = W2 ->
  cW pc' = false -> cC pc' = cC (cli s i) -> (cTl (cli s i) = true -> cTl pc' = true) ->
  (closer_has pc' = true -> closer_has (cli s i) = true) ->
  inv1 (set_pc (set_pc (set_wl s (WHeld (PCli n))) n (WF true)) i pc').
Proof.
  intros s i n pc' I HWL HN HW HC HT HCL.
  assert (NI : n <> i).
  { intro; subst. destruct I as [IW _ _ _ _ _ _ _ _ _ _]. specialize (IW i). unfold wl_is in IW. rewrite HWL, HN in IW.
    simpl in IW. rewrite Nat.eqb_refl in IW. discriminate. }
  destruct I as [IW IWM IWT IWCE IC ICM ICT ICCE IT ICL IMEM].
  unfold wl_is, cl_is in *. rewrite HWL in *.
  constructor; simpl; unfold wl_is, cl_is; simpl; auto.
  - intro j. unfold upd. destruct (Nat.eqb j i) eqn:E.
    + apply Nat.eqb_eq in E; subst. rewrite HW. apply Nat.eqb_neq; auto.
    + destruct (Nat.eqb j n) eqn:E2.
      * apply Nat.eqb_eq in E2; subst. rewrite Nat.eqb_refl; auto.
      * rewrite <- IW. simpl. apply Nat.eqb_neq in E. apply Nat.eqb_neq in E2.
        transitivity false; [apply Nat.eqb_neq; auto | symmetry; apply Nat.eqb_neq; auto].
  - intro j. unfold upd. destruct (Nat.eqb j i) eqn:E.
    + apply Nat.eqb_eq in E; subst. rewrite HC; auto.
    + destruct (Nat.eqb j n) eqn:E2; auto. apply Nat.eqb_eq in E2; subst. rewrite IC, HN; auto.
  - intros j Hj. unfold upd. destruct (Nat.eqb j i) eqn:E.
    + apply Nat.eqb_eq in E; subst; auto.
    + destruct (Nat.eqb j n) eqn:E2; auto. apply Nat.eqb_eq in E2; subst. specialize (IT _ Hj). rewrite HN in IT; discriminate.
  - intros j. unfold upd. destruct (Nat.eqb j i) eqn:E.
    + apply Nat.eqb_eq in E; subst. intro X. specialize (ICL i (HCL X)). discriminate.
    + destruct (Nat.eqb j n) eqn:E2; [simpl; discriminate|]. intro X. specialize (ICL j X). discriminate.
  - intro X. specialize (IMEM X). discriminate.
Qed.

Lemma closer_false : forall s i pc', inv1 s -> wl s <> WClosed ->
  implb (closer_has pc') (closer_has (cli s i) || false) = true -> closer_has pc' = false.
Proof.
  intros s i pc' I NW H. destruct (closer_has pc') eqn:E; auto. simpl in H. rewrite orb_false_r in H.
  destruct I. exfalso; eauto.
Qed.

Ltac acq_case :=
  match goal with HF : wl_free ?s = true, I : inv1 ?s |- inv1 (set_pc _ _ ?pc') =>
    let W := fresh "W" in pose proof (wl_free_true _ HF) as W;
    let CF := fresh "CF" in
    assert (CF : closer_has pc' = false) by (eapply closer_false; eauto; rewrite W; discriminate);
    apply inv1_W_change'; side;
    [ intros j NJ; unfold wl_is; rewrite W; simpl; apply Nat.eqb_neq; congruence
    | simpl; rewrite Nat.eqb_refl; auto
    | destruct I as [_ _ _ IWCE _ _ _ _ _ _ _]; rewrite <- IWCE; unfold wl_is; rewrite W; reflexivity
    | rewrite W; discriminate
    | rewrite CF; discriminate ]
  end.

Ltac rel_case :=
  match goal with HF : wl_is ?s (PCli ?i) = true, I : inv1 ?s |- inv1 (set_pc _ _ ?pc') =>
    let W := fresh "W" in pose proof (wl_is_true _ _ HF) as W;
    let CF := fresh "CF" in
    assert (CF : closer_has pc' = false) by (eapply closer_false; eauto; rewrite W; discriminate);
    apply inv1_W_change'; side;
    [ intros j NJ; unfold wl_is; rewrite W; simpl; symmetry; apply Nat.eqb_neq; congruence
    | destruct I as [_ _ _ IWCE _ _ _ _ _ _ _]; rewrite <- IWCE; unfold wl_is; rewrite W; reflexivity
    | rewrite W; discriminate
    | rewrite CF; discriminate ]
  end.

Lemma cpc_is_W2_true : forall pc, cpc_is_W2 pc = true -> pc = W2.
Proof. destruct pc; simpl; intros; try discriminate; auto. Qed.
Lemma cpc_is_W3_true : forall pc, cpc_is_W3 pc = true -> pc = W3.
Proof. destruct pc; simpl; intros; try discriminate; auto. Qed.
Lemma cpc_is_W1m_true : forall pc, cpc_is_W1m pc = true -> pc = W1 true.
Proof. destruct pc; simpl; intros; try discriminate; auto. destruct m; auto; discriminate. Qed.

Ltac getW := match goal with H : wl_is ?s (PCli ?i) = true |- _ => let W := fresh "W" in pose proof (wl_is_true _ _ H) as W end.
Ltac getF := match goal with H : wl_free ?s = true |- _ => let W := fresh "W" in pose proof (wl_free_true _ H) as W end.
Ltac partner_pc j :=
  match goal with
  | H : cpc_is_W2 (cli ?s j) = true |- _ => let HN := fresh "HN" in pose proof (cpc_is_W2_true _ H) as HN
  | H : cpc_is_W3 (cli ?s j) = true |- _ => let HN := fresh "HN" in pose proof (cpc_is_W3_true _ H) as HN
  | H : cpc_is_W1m (cli ?s j) = true |- _ => let HN := fresh "HN" in pose proof (cpc_is_W1m_true _ H) as HN
  end.
Ltac partner_ne j i :=
  let NE := fresh "NE" in assert (NE : j <> i) by (intro; subst; match goal with HN : cli _ _ = _ |- _ => rewrite HN in * end; simpl in *; congruence).
Ltac two_pc s i j pj pc' :=
  eapply inv1_frame; [| apply (inv1_set_pc2 s i j pj pc'); try assumption; try (match goal with HN : cli _ j = _ |- _ => rewrite HN end); side; simpl; try discriminate];
  [repeat split; reflexivity].

Lemma inv1_step_cli : forall s i k arg s', inv1 s -> step fixed s (ACli i k arg) = Some s' -> inv1 s'.
Proof.
  intros s i k arg s' I H. simpl in H.
  destruct (nth_error (cedges fixed (cli s i)) k) as [[l pc']|] eqn:N; [|discriminate].
  pose proof (nth_forallb _ _ _ _ (cedges1_ok (cli s i)) N) as EK.
  destruct (lsem fixed (PCli i) l arg s) as [s1|] eqn:L; [|discriminate]. inversion H; subst s'; clear H N.
  unfold cedge1_ok in EK.
  destruct l; simpl in L, EK; bsplit.
  all: try (solve [apply inv1_set_pc; side]).
  all: try (solve [apply inv1_set_pc; [frame | side ..]]).
  - (* LIfMemNil *)
    apply inv1_set_pc; side.
    match goal with H : negb _ || _ = true |- _ => apply orb_prop in H; destruct H as [X | X] end.
    + apply negb_true_iff in X. rewrite X. destruct I as [IW _ _ _ _ _ _ _ _ _ IMEM].
      rewrite <- IW. unfold wl_is. rewrite IMEM; auto.
    + apply Bool.eqb_prop in X; auto.
  - (* LClearMems *)
    assert (wl s = WClosed) by (destruct I; eauto).
    apply inv1_set_pc; side.
    destruct I as [IW IWM IWT IWCE IC ICM ICT ICCE IT ICL IMEM]; constructor; simpl; auto.
  - (* LAcqW *) acq_case.
  - (* LAcqWRO *) acq_case.
  - (* LAcqWClose *)
    getF. apply inv1_W_change'; side.
    + intros j NJ; unfold wl_is; rewrite W; reflexivity.
    + destruct I as [_ _ _ IWCE _ _ _ _ _ _ _]; rewrite <- IWCE; unfold wl_is; rewrite W; reflexivity.
  - (* LRelW *) rel_case.
  - (* LRelWU *) rel_case.
  - (* LGiveW *)
    getW. partner_pc n.
    eapply inv1_frame; [| apply (inv1_give s i n pc'); side].
    repeat split; reflexivity.
  - (* LAckOne *)
    partner_pc arg. partner_ne arg i. two_pc s i arg Ret pc'.
  - (* LMergeRecv *)
    partner_pc arg. partner_ne arg i. two_pc s i arg W2 pc'.
  - (* LMergedTrue *)
    partner_pc n. partner_ne n i. two_pc s i n W3 pc'.
  - (* LWToTr *)
    eapply (inv1_frame (set_pc (set_wl s WTr) i pc')); [repeat split; reflexivity | rel_case].
  - (* LRelWTr *)
    match goal with H : wl s = WTr |- _ => rename H into W end.
    assert (CF : closer_has pc' = false) by (eapply closer_false; eauto; rewrite W; discriminate).
    assert (CWF : cW (cli s i) = false) by (destruct I as [IW _ _ _ _ _ _ _ _ _ _]; rewrite <- IW; unfold wl_is; rewrite W; auto).
    eapply (inv1_frame (set_pc (set_wl s WFree) i pc')); [repeat split; reflexivity |].
    apply inv1_W_change'; side.
    + intros j NJ; unfold wl_is; rewrite W; reflexivity.
    + simpl. congruence.
    + destruct I as [_ _ _ IWCE _ _ _ _ _ _ _]; rewrite <- IWCE; unfold wl_is; rewrite W; reflexivity.
    + rewrite W; discriminate.
    + rewrite CF; discriminate.
  - (* LSendErrSetRO *)
    getW.
    assert (CF : closer_has pc' = false) by (eapply closer_false; eauto; rewrite W; discriminate).
    eapply (inv1_frame (set_locking (set_pc (set_wl s (WHeld PCE)) i pc') true)); [repeat split; reflexivity |].
    apply inv1_W_change; side.
    + intros j NJ; unfold wl_is; rewrite W; simpl; symmetry; apply Nat.eqb_neq; congruence.
    + rewrite W; discriminate.
    + rewrite CF; discriminate.
  - (* LLockC *)
    match goal with H : is_none (cl s) = true |- _ => pose proof (is_none_true _ H) as CN end.
    destruct I as [IW IWM IWT IWCE IC ICM ICT ICCE IT ICL IMEM].
    apply inv1_C_change; side; try (constructor; assumption).
    + intros j NJ; unfold cl_is; rewrite CN; simpl; apply Nat.eqb_neq; congruence.
    + simpl; rewrite Nat.eqb_refl; auto.
    + simpl. rewrite <- ICM. unfold cl_is; rewrite CN; reflexivity.
    + simpl. rewrite <- ICT. unfold cl_is; rewrite CN; reflexivity.
  - (* LUnlockC *)
    match goal with H : cl_is s (PCli i) = true |- _ => pose proof (cl_is_true _ _ H) as CN end.
    destruct I as [IW IWM IWT IWCE IC ICM ICT ICCE IT ICL IMEM].
    apply inv1_C_change; side; try (constructor; assumption).
    + intros j NJ; unfold cl_is; rewrite CN; simpl; symmetry; apply Nat.eqb_neq; congruence.
    + simpl. rewrite <- ICM. unfold cl_is; rewrite CN; reflexivity.
    + simpl. rewrite <- ICT. unfold cl_is; rewrite CN; reflexivity.
  - (* LLockT, current *)
    apply inv1_T_change; side. intros j NJ X; inversion X; congruence.
  - (* LUnlockT, holder *)
    apply inv1_T_change; side; try discriminate.
  - (* LUnlockT, stale *)
    match goal with |- inv1 (set_pc ?S _ _) =>
      eapply (inv1_frame (set_pc (set_tl S (tl S)) i pc')); [repeat split; reflexivity |] end.
    apply inv1_T_change; side.
    intro X. rewrite X in *. simpl in *. rewrite Nat.eqb_refl in *. discriminate.
  - (* LSendCmd BM *)
    assert (IM : inv1 (set_mc s M1)) by (apply inv1_set_mc; auto; rewrite Heqm; reflexivity).
    destruct k0; (apply inv1_set_pc; [eapply inv1_frame; [| exact IM]; repeat split; reflexivity | side ..]).
  - (* LSendCmd BT *)
    assert (IM : inv1 (set_tc s (T3 k0))).
    { apply inv1_set_tc; auto. destruct (tc s); simpl in *; try discriminate; reflexivity. }
    destruct k0; (apply inv1_set_pc; [eapply inv1_frame; [| exact IM]; repeat split; reflexivity | side ..]).
  - (* LTrySendCmd BM *)
    destruct (mc s) eqn:Heqm; try (apply inv1_set_pc; side).
    assert (IM : inv1 (set_mc s M1)) by (apply inv1_set_mc; auto; rewrite Heqm; reflexivity).
    eapply inv1_frame; [| exact IM]; repeat split; reflexivity.
  - (* LTrySendCmd BT *)
    destruct (t_recv_cmd (tc s)) eqn:Heqt; try (apply inv1_set_pc; side).
    assert (IM : inv1 (set_tc s (T3 XNo))).
    { apply inv1_set_tc; auto. destruct (tc s); simpl in *; try discriminate; reflexivity. }
    eapply inv1_frame; [| exact IM]; repeat split; reflexivity.
Qed.

(* compCommitLk taken / given back by mCompaction *)
Lemma inv1_CM_change : forall s c' pc',
  inv1 s -> (forall j, cis c' (PCli j) = cl_is s (PCli j)) ->
  cis c' PM = mC pc' -> cis c' PT = tC (tc s) -> cis c' PCE = false ->
  inv1 (set_mc (set_cl s c') pc').
Proof.
  intros s c' pc' [IW IWM IWT IWCE IC ICM ICT ICCE IT ICL IMEM] H1 H2 H3 H4.
  constructor; simpl; unfold wl_is, cl_is in *; simpl; auto.
  intro j. rewrite <- IC. apply H1.
Qed.
Lemma inv1_CT_change : forall s c' pc',
  inv1 s -> (forall j, cis c' (PCli j) = cl_is s (PCli j)) ->
  cis c' PM = mC (mc s) -> cis c' PT = tC pc' -> cis c' PCE = false ->
  inv1 (set_tc (set_cl s c') pc').
Proof.
  intros s c' pc' [IW IWM IWT IWCE IC ICM ICT ICCE IT ICL IMEM] H1 H2 H3 H4.
  constructor; simpl; unfold wl_is, cl_is in *; simpl; auto.
  intro j. rewrite <- IC. apply H1.
Qed.

Lemma inv1_step_m : forall s k s', inv1 s -> step fixed s (AM k) = Some s' -> inv1 s'.
Proof.
  intros s k s' I H. simpl in H.
  destruct (nth_error (medges (mc s)) k) as [[l pc']|] eqn:N; [|discriminate].
  pose proof (nth_forallb _ _ _ _ (medges1_ok (mc s)) N) as EK.
  destruct (lsem fixed PM l 0 s) as [s1|] eqn:L; [|discriminate]. inversion H; subst s'; clear H N.
  unfold medge1_ok in EK.
  destruct l; simpl in L, EK; bsplit.
  all: try (solve [apply inv1_set_mc; side]).
  all: try (solve [apply inv1_set_mc; [frame | side ..]]).
  - (* LLockC *)
    match goal with H : is_none (cl s) = true |- _ => pose proof (is_none_true _ H) as CN end.
    destruct I as [IW IWM IWT IWCE IC ICM ICT ICCE IT ICL IMEM].
    apply inv1_CM_change; try (constructor; assumption); simpl; auto.
    + intro j. unfold cl_is. rewrite CN. reflexivity.
    + rewrite <- ICT. unfold cl_is; rewrite CN; reflexivity.
  - (* LUnlockC *)
    match goal with H : cl_is s PM = true |- _ => pose proof (cl_is_true _ _ H) as CN end.
    destruct I as [IW IWM IWT IWCE IC ICM ICT ICCE IT ICL IMEM].
    apply inv1_CM_change; try (constructor; assumption); simpl; auto.
    + intro j. unfold cl_is. rewrite CN. reflexivity.
    + rewrite <- ICT. unfold cl_is; rewrite CN; reflexivity.
  - (* LTrySendCmd BT *)
    destruct (t_recv_cmd (tc s)) eqn:Heqt; [| apply inv1_set_mc; side].
    assert (IM : inv1 (set_tc s (T3 XNo))).
    { apply inv1_set_tc; auto. destruct (tc s); simpl in *; try discriminate; reflexivity. }
    apply inv1_set_mc; side. eapply inv1_frame; [| exact IM]; repeat split; reflexivity.
  - (* LSendPause *)
    apply inv1_set_mc; side. apply inv1_set_tc; auto.
    destruct (tc s); simpl in *; try discriminate; reflexivity.
  - (* LRecvResume *)
    apply inv1_set_mc; side. apply inv1_set_tc; auto.
    match goal with H : tc s = TP _ |- _ => rewrite H end. destruct k0; try destruct r; reflexivity.
  - (* LAck *)
    destruct (mx s) as [w|]; [| apply inv1_set_mc; side].
    pose proof (inv1_deliver BM ok w s I) as ID.
    destruct (deliver_fields BM ok w s) as (_ & _ & _ & _ & Hm & _).
    apply inv1_set_mc; [eapply inv1_frame; [| exact ID]; repeat split; reflexivity |].
    simpl. rewrite Hm. side.
  - (* LAckQ *)
    pose proof (inv1_deliver BT ok p s I) as ID.
    destruct (deliver_fields BT ok p s) as (_ & _ & _ & _ & Hm & _).
    apply inv1_set_mc; [eapply inv1_frame; [| exact ID]; repeat split; reflexivity |].
    simpl. rewrite Hm. side.
Qed.

Lemma inv1_step_t : forall s k s', inv1 s -> step fixed s (AT k) = Some s' -> inv1 s'.
Proof.
  intros s k s' I H. simpl in H.
  destruct (nth_error (tedges (tc s)) k) as [[l pc']|] eqn:N; [|discriminate].
  pose proof (nth_forallb _ _ _ _ (tedges1_ok (tc s)) N) as EK.
  destruct (lsem fixed PT l 0 s) as [s1|] eqn:L; [|discriminate]. inversion H; subst s'; clear H N.
  unfold tedge1_ok in EK.
  destruct l; simpl in L, EK; bsplit.
  all: try (solve [apply inv1_set_tc; side]).
  all: try (solve [apply inv1_set_tc; [frame | side ..]]).
  - (* LLockC *)
    match goal with H : is_none (cl s) = true |- _ => pose proof (is_none_true _ H) as CN end.
    destruct I as [IW IWM IWT IWCE IC ICM ICT ICCE IT ICL IMEM].
    apply inv1_CT_change; try (constructor; assumption); simpl; auto.
    + intro j. unfold cl_is. rewrite CN. reflexivity.
    + rewrite <- ICM. unfold cl_is; rewrite CN; reflexivity.
  - (* LUnlockC *)
    match goal with H : cl_is s PT = true |- _ => pose proof (cl_is_true _ _ H) as CN end.
    destruct I as [IW IWM IWT IWCE IC ICM ICT ICCE IT ICL IMEM].
    apply inv1_CT_change; try (constructor; assumption); simpl; auto.
    + intro j. unfold cl_is. rewrite CN. reflexivity.
    + rewrite <- ICM. unfold cl_is; rewrite CN; reflexivity.
  - (* LTrySendCmd BT *)
    destruct (t_recv_cmd (tc s)) eqn:Heqt; [| apply inv1_set_tc; side].
    eapply (inv1_frame (set_tc s pc')); [repeat split; reflexivity | apply inv1_set_tc; side].
  - (* LSendPause *)
    eapply (inv1_frame (set_tc s pc')); [repeat split; reflexivity | apply inv1_set_tc; side].
  - (* LRecvResume *)
    eapply (inv1_frame (set_tc s pc')); [repeat split; reflexivity | apply inv1_set_tc; side].
    rewrite Heqt; auto.
  - (* LAck *)
    destruct (tx s) as [w|]; [| apply inv1_set_tc; side].
    pose proof (inv1_deliver BT ok w s I) as ID.
    destruct (deliver_fields BT ok w s) as (_ & _ & _ & _ & _ & Hm & _).
    apply inv1_set_tc; [eapply inv1_frame; [| exact ID]; repeat split; reflexivity |].
    simpl. rewrite Hm. side.
  - (* LAckQ *)
    pose proof (inv1_deliver BT ok p s I) as ID.
    destruct (deliver_fields BT ok p s) as (_ & _ & _ & _ & _ & Hm & _).
    apply inv1_set_tc; [eapply inv1_frame; [| exact ID]; repeat split; reflexivity |].
    simpl. rewrite Hm. side.
Qed.

Lemma inv1_step_ce : forall s k s', inv1 s -> step fixed s (ACE k) = Some s' -> inv1 s'.
Proof.
  intros s k s' I H. simpl in H. unfold step_ce in H.
  destruct k as [|[|k]]; [| |destruct (ce s); discriminate].
  - destruct (ce s); try discriminate. bsplit.
    match goal with H : wl_free s = true |- _ => pose proof (wl_free_true _ H) as W end.
    destruct I as [IW IWM IWT IWCE IC ICM ICT ICCE IT ICL IMEM].
    constructor; simpl; unfold wl_is, cl_is in *; simpl; auto.
    + intro j. rewrite <- IW, W. reflexivity.
    + intros j X. specialize (ICL j X). congruence.
    + intro X. specialize (IMEM X). congruence.
  - assert (G : closeC s = true /\ s' = set_ce (if (match ce s with E_per => true | _ => false end) && locking s
                       then set_locking (set_wl s WFree) false else s) E_done).
    { destruct (ce s); try discriminate; bsplit; auto. }
    destruct G as [_ ->].
    destruct ((match ce s with E_per => true | _ => false end) && locking s) eqn:E.
    + apply andb_prop in E. destruct E as [_ LK].
      destruct I as [IW IWM IWT IWCE IC ICM ICT ICCE IT ICL IMEM].
      rewrite LK in IWCE. pose proof (wl_is_true _ _ IWCE) as W.
      constructor; simpl; unfold wl_is, cl_is in *; simpl; auto.
      * intro j. rewrite <- IW, W. reflexivity.
      * intros j X. specialize (ICL j X). congruence.
      * intro X. specialize (IMEM X). congruence.
    + eapply inv1_frame; [| exact I]. repeat split; reflexivity.
Qed.

Theorem inv1_reachable : forall s, reachable fixed s -> inv1 s.
Proof.
  induction 1 as [| s a s' R IH ST].
  - apply inv1_init.
  - destruct a.
    + eapply inv1_step_cli; eauto.
    + eapply inv1_step_m; eauto.
    + eapply inv1_step_t; eauto.
    + eapply inv1_step_ce; eauto.
Qed.

(* what a client holds is a function of its program counter *)
Theorem held_is_pc : forall s, reachable fixed s ->
  forall i, holdsW s i = cW (cli s i) /\ holdsC s i = cC (cli s i) /\ (holdsT s i = true -> cTl (cli s i) = true).
Proof.
  intros s R i. destruct (inv1_reachable s R) as [IW _ _ _ IC _ _ _ IT _ _].
  unfold holdsW, holdsC, holdsT. repeat split; auto.
  intro H. apply IT. destruct (tl s); simpl in H; try discriminate. apply Nat.eqb_eq in H; subst; auto.
Qed.

(* locks_balanced: a client that is not inside a call holds neither the write lock, nor compCommitLk, nor tr.lk --
   on every path, for every outcome of the storage operations.  (The write lock of an open transaction belongs to
   the Transaction, WTr; the one taken by Close is kept for ever on behalf of the closed DB, WClosed.) *)
Theorem locks_balanced_lts : forall s, reachable fixed s ->
  forall i, (cli s i = Idle \/ cli s i = IdleTr) -> holdsW s i = false /\ holdsC s i = false /\ holdsT s i = false.
Proof.
  intros s R i H. destruct (held_is_pc s R i) as (A & B & C).
  rewrite A, B. destruct H as [H | H]; rewrite H in *; simpl; repeat split; auto;
  destruct (holdsT s i); auto; specialize (C eq_refl); discriminate.
Qed.

(* equality on the tests and the two select labels that [has_test_pair] and the lemmas below ask about; false on
   every other label, so [has_lbl] is meant for these only *)
Definition lbl_eqb_simple (a b : lbl) : bool :=
  match a, b with
  | LSeeClosed, LSeeClosed | LRecvErr, LRecvErr | LRecvPerr, LRecvPerr | LOpenC, LOpenC => true
  | LIfClosed x, LIfClosed y | LCasClosed x, LCasClosed y | LReadDbTr x, LReadDbTr y | LIfTrOpen x, LIfTrOpen y => Bool.eqb x y
  | _, _ => false
  end.
Definition has_lbl {P} (l : lbl) (es : list (lbl * P)) : bool := existsb (fun e => lbl_eqb_simple (fst e) l) es.

(* a step that can never block: internal steps, releases by the holder, non-blocking sends *)
Definition never_blocks (l : lbl) : bool :=
  match l with
  | LTau | LBegin _ | LEnd | LCloseChan | LClearMems | LTrySendCmd _ | LCommitOk | LCommitFailW
  | LRelW | LRelWTr | LWToTr | LUnlockC | LUnlockT | LEnqueue => true
  | _ => false
  end.
(* both outcomes of a test are present *)
Definition has_test_pair {P} (es : list (lbl * P)) : bool :=
  (has_lbl (LIfClosed true) es && has_lbl (LIfClosed false) es) ||
  (has_lbl (LCasClosed true) es && has_lbl (LCasClosed false) es) ||
  (has_lbl (LReadDbTr true) es && has_lbl (LReadDbTr false) es) ||
  (has_lbl (LIfTrOpen true) es && has_lbl (LIfTrOpen false) es) ||
  (has_lbl LSeeClosed es && has_lbl LOpenC es).   (* select { case <-closeC: ; default: } *)

Inductive wait_class := WNone    (* not a wait: some edge never blocks *)
                      | WClose   (* a select that lists closeC *)
                      | WPartner (* an unconditional operation: the partner is guaranteed by an invariant *)
                      | WFinal.  (* no edge of its own: a goroutine that has ended, or the passive side of a
                                    rendezvous (clients at W2 / W3), which the partner's step moves *)
Definition classify {P} (es : list (lbl * P)) : wait_class :=
  match es with
  | [] => WFinal
  | _ => if existsb (fun e => never_blocks (fst e)) es || has_test_pair es then WNone
         else if has_lbl LSeeClosed es then WClose else WPartner
  end.

(* the unconditional blocking operations of the clients, each with the reason why it cannot block for ever:
   W2        <-writeMergedC      the lock holder answers every merge request it received (LMergedTrue / LGiveW)
   W3        <-writeAckC         the lock holder acknowledges every merged writer in unlockWrite (LAckOne)
   WMs       writeMergedC<-true  the requester is waiting in W2
   WU        unlockWrite         writeAckC<- / writeMergedC<-false: the partners wait in W3 / W2; else a release
   LB1 CM1 DC0 TP1 OT6   tr.lk.Lock()       a mutex: its holders never wait for the write lock or tr.lk
   CM4       compCommitLk.Lock() a mutex: its holders only wait with closeC / error exits
   CL4       Close: writeLockC<- every holder of the write lock releases it once closeC is closed
   CL5       closeW.Wait()       both compaction goroutines leave at closeC *)
Definition client_unconditional (pc : cpc) : bool :=
  match pc with
  | W2 | W3 | WMs _ | WU _ | LB1 | CM1 _ | DC0 _ | TP1 | OT6 _ | CM4 _ | CL4 | CL5 => true
  | _ => false
  end.
Definition m_unconditional (pc : mpc) : bool := match pc with MC _ | MAck | MX => true | _ => false end.
Definition t_unconditional (pc : tpc) : bool := match pc with TC _ | TQ _ | TAx _ | TX => true | _ => false end.

Lemma client_waits : forall pc,
  match classify (cedges fixed pc) with
  | WPartner | WFinal => client_unconditional pc = true
  | _ => client_unconditional pc = false
  end.
Proof. intro pc; destruct pc; dparams; reflexivity. Qed.
Lemma m_waits : forall pc,
  match classify (medges pc) with
  | WPartner => m_unconditional pc = true | WFinal => pc = MDone | _ => m_unconditional pc = false end.
Proof. intro pc; destruct pc; dparams; reflexivity. Qed.
Lemma t_waits : forall pc,
  match classify (tedges pc) with
  | WPartner => t_unconditional pc = true | WFinal => pc = TDone | _ => t_unconditional pc = false end.
Proof. intro pc; destruct pc; dparams; reflexivity. Qed.

(* waits for background work list compErrC; waits for the write lock list compPerErrC (Close excepted) *)
Definition has_send_cmd {P} (es : list (lbl * P)) : bool :=
  existsb (fun e => match fst e with LSendCmd _ _ => true | _ => false end) es.
Definition has_acq {P} (es : list (lbl * P)) : bool :=
  existsb (fun e => match fst e with LAcqW | LAcqWRO => true | _ => false end) es.
Definition is_trigw_pc (pc : cpc) : bool := match pc with TrigW _ _ => true | _ => false end.

Lemma error_exits : forall pc,
  let es := cedges fixed pc in
  (has_send_cmd es || is_trigw_pc pc = true -> has_lbl LRecvErr es && has_lbl LSeeClosed es = true) /\
  (has_acq es = true -> has_lbl LRecvPerr es && has_lbl LSeeClosed es = true).
Proof. intro pc; destruct pc; dparams; simpl; split; intro; try discriminate; reflexivity. Qed.

Definition unfixed_D4a := {| fixD4a := false; fixD4b := true; fixD4c := true; fixD7 := true; fixD8 := true; fixD9 := true |}.
Definition unfixed_D4b := {| fixD4a := true; fixD4b := false; fixD4c := true; fixD7 := true; fixD8 := true; fixD9 := true |}.
Definition unfixed_D4c := {| fixD4a := true; fixD4b := true; fixD4c := false; fixD7 := true; fixD8 := true; fixD9 := true |}.
Definition unfixed_D7 := {| fixD4a := true; fixD4b := true; fixD4c := true; fixD7 := false; fixD8 := true; fixD9 := true |}.
Definition unfixed_D9 := {| fixD4a := true; fixD4b := true; fixD4c := true; fixD7 := true; fixD8 := true; fixD9 := false |}.
Definition unfixed_D8 := {| fixD4a := true; fixD4b := true; fixD4c := true; fixD7 := true; fixD8 := false; fixD9 := true |}.

(* a user transaction: OpenTransaction succeeds, Commit's three attempts fail, Commit returns *)
Definition trace_D4a : list action :=
  [ACli 0 4 0; ACli 0 1 0; ACli 0 0 0; ACli 0 2 0; ACli 0 1 0; ACli 0 0 0; ACli 0 1 0; ACli 0 0 0;
   ACli 0 0 0; ACli 0 1 0; ACli 0 0 0; ACli 0 1 0; ACli 0 1 0; ACli 0 0 0;
   ACli 0 1 0; ACli 0 0 0; ACli 0 1 0; ACli 0 0 0; ACli 0 1 0; ACli 0 0 0; ACli 0 0 0; ACli 0 0 0; ACli 0 0 0].
(* DB.Write of a batch larger than the write buffer: internal transaction, Commit fails, Write returns *)
Definition trace_D4b : list action :=
  [ACli 0 2 0; ACli 0 2 0; ACli 0 0 0; ACli 0 1 0; ACli 0 0 0; ACli 0 2 0; ACli 0 1 0; ACli 0 0 0; ACli 0 1 0; ACli 0 0 0;
   ACli 0 0 0; ACli 0 0 0; ACli 0 0 0; ACli 0 0 0;
   ACli 0 1 0; ACli 0 0 0; ACli 0 1 0; ACli 0 1 0; ACli 0 0 0;
   ACli 0 1 0; ACli 0 0 0; ACli 0 1 0; ACli 0 0 0; ACli 0 1 0; ACli 0 0 0; ACli 0 0 0; ACli 0 0 0; ACli 0 0 0; ACli 0 0 0].
(* OpenTransaction takes the write lock, starts the memdb flush; Close (client 1) closes closeC; the wait fails *)
Definition trace_D4c : list action :=
  [ACli 0 4 0; ACli 0 1 0; ACli 0 0 0; ACli 0 0 0; ACli 1 7 0; ACli 1 0 0; ACli 1 0 0; ACli 1 0 0;
   ACli 0 2 0; ACli 0 0 0; ACli 0 0 0].
(* a Put rotates the memdb; mCompaction flushes it; the commit's manifest write fails once *)
Definition trace_D7 : list action :=
  [ACli 0 0 0; ACli 0 1 0; ACli 0 0 0; ACli 0 2 0; AT 1; AT 0; AT 1; ACli 0 0 0;
   AM 1; AM 0; AM 1; AM 0; AM 0; AM 0; AM 1; AM 2; AM 0; AM 1].
(* SetReadOnly (client 0) takes the write lock; Close (client 1) closes closeC; compactionError leaves;
   SetReadOnly returns ErrClosed *)
Definition trace_D8 : list action :=
  [ACli 0 6 0; ACli 0 1 0; ACli 0 0 0; ACli 1 7 0; ACli 1 0 0; ACli 1 0 0; ACli 1 0 0; ACli 1 1 0; ACE 1;
   ACli 0 2 0; ACli 0 0 0].

Definition summary (o : option state) :=
  match o with Some s => Some (wl s, cl s, trown s, cli s 0, cli s 1) | None => None end.

(* D4a: Commit has returned (the client is back at IdleTr) and compCommitLk is still locked by it *)
Example commit_leaks_refuted :
  summary (run unfixed_D4a init trace_D4a) = Some (WTr, Some (PCli 0), Some 0, IdleTr, Idle) /\
  summary (run fixed init trace_D4a) = Some (WTr, None, Some 0, IdleTr, Idle).
Proof. split; vm_compute; reflexivity. Qed.

(* D4b: Write has returned (client Idle, nobody has the handle) and the transaction still owns the write lock;
   the repaired code is discarding the transaction at this point *)
Example write_large_leaks_refuted :
  summary (run unfixed_D4b init trace_D4b) = Some (WTr, None, Some 0, Idle, Idle) /\
  summary (run fixed init trace_D4b) = Some (WTr, None, Some 0, DC0 XLB, Idle).
Proof. split; vm_compute; reflexivity. Qed.

(* D4c: OpenTransaction has returned an error and the client still holds the write lock;
   on the same schedule the repaired code has released it *)
Example open_transaction_leaks_refuted :
  summary (run unfixed_D4c init trace_D4c) = Some (WHeld (PCli 0), None, None, Idle, CL3) /\
  summary (run fixed init trace_D4c) = Some (WFree, None, None, Idle, CL3).
Proof. split; vm_compute; reflexivity. Qed.

(* D7: after one failed manifest write the commit can never succeed again (the writer is poisoned), while
   mCompaction keeps compCommitLk; the repaired code's next attempt succeeds *)
Example commit_retry_leaks_refuted :
  (match run unfixed_D7 init trace_D7 with
   | Some s => (cl s, mc s, poisoned s, summary (step unfixed_D7 s (AM 0)))
   | None => (None, M0, false, None) end) = (Some PM, MD1 true, true, None) /\
  (match run fixed init trace_D7 with
   | Some s => match step fixed s (AM 0) with Some s' => Some (mc s') | None => None end
   | None => None end) = Some (MDs true EOk).
Proof. split; vm_compute; reflexivity. Qed.

Lemma poisoned_sticks_unfixed : forall s a s',
  poisoned s = true -> step unfixed_D7 s a = Some s' -> poisoned s' = true.
Proof.
  assert (D : forall b ok w s, poisoned (deliver b ok w s) = poisoned s).
  { intros b ok [i n] s; unfold deliver. destruct (is_trigw b (cli s i) && Nat.eqb (ctk s i) n); reflexivity. }
  assert (L : forall p l arg s s', poisoned s = true -> lsem unfixed_D7 p l arg s = Some s' -> poisoned s' = true).
  { intros p l arg s s' P H. destruct l; simpl in H; unfold guard in H;
      repeat match type of H with
      | context[match ?x with _ => _ end] => destruct x eqn:?
      end; try discriminate; inversion H; subst; simpl; rewrite ?D; auto. }
  intros s a s' P H. destruct a; simpl in H.
  - destruct (nth_error (cedges unfixed_D7 (cli s i)) k) as [[l pc']|]; try discriminate.
    destruct (lsem unfixed_D7 (PCli i) l arg s) eqn:E; try discriminate. inversion H; subst. simpl. eauto.
  - destruct (nth_error (medges (mc s)) k) as [[l pc']|]; try discriminate.
    destruct (lsem unfixed_D7 PM l 0 s) eqn:E; try discriminate. inversion H; subst. simpl. eauto.
  - destruct (nth_error (tedges (tc s)) k) as [[l pc']|]; try discriminate.
    destruct (lsem unfixed_D7 PT l 0 s) eqn:E; try discriminate. inversion H; subst. simpl. eauto.
  - unfold step_ce, guard in H.
    repeat match type of H with context[match ?x with _ => _ end] => destruct x eqn:? end;
      try discriminate; inversion H; subst; simpl; auto.
Qed.

(* D8: SetReadOnly has returned ErrClosed with the write lock, compactionError is gone, Close waits for ever *)
Example set_read_only_leaks_refuted :
  (match run unfixed_D8 init trace_D8 with
   | Some s => (wl s, cli s 0, cli s 1, ce s, summary (step unfixed_D8 s (ACli 1 0 0)))
   | None => (WFree, Idle, Idle, E_no, None) end) = (WHeld (PCli 0), Idle, CL4, E_done, None) /\
  summary (run fixed init trace_D8) = Some (WFree, None, None, Ret, CL4).
Proof. split; vm_compute; reflexivity. Qed.

(* The read-only branch of the compaction goroutines.
   CompactRange (client 1) has passed the write-lock stage and is about to send its range command; SetReadOnly
   (client 0) switches the DB (compactionError enters its persistent-error state and owns the write lock);
   the command is received by tCompaction, which takes the edge T3 XRange -> TX (persistent error: start
   nothing), acknowledges with the error and returns; CompactRange returns; Close then finds tCompaction gone,
   mCompaction leaves on closeC, closeW.Wait returns and Close returns. *)
Definition trace_ro_parks : list action :=
  [ACli 1 5 0; ACli 1 1 0; ACli 1 0 0; ACli 1 2 0; ACli 1 0 0;
   AT 1; AT 0; AT 1;
   ACli 0 6 0; ACli 0 1 0; ACli 0 0 0; ACli 0 0 0; ACli 0 0 0;
   ACli 1 0 0; AT 1; AT 1; ACli 1 0 0;
   ACli 0 7 0; ACli 0 0 0; ACli 0 0 0; ACli 0 0 0; ACli 0 1 0; ACE 1; ACli 0 0 0; AM 0; AM 0;
   ACli 0 0 0; ACli 0 0 0; ACli 0 0 0].
Definition summary_bg (o : option state) :=
  match o with Some s => Some (wl s, ce s, mc s, tc s, cli s 0, cli s 1) | None => None end.

Example read_only_parks_compaction :
  summary_bg (run fixed init (firstn 14 trace_ro_parks)) = Some (WHeld PCE, E_per, M0, T3 XRange, Idle, TrigW BT SCrT) /\
  summary_bg (run fixed init (firstn 15 trace_ro_parks)) = Some (WHeld PCE, E_per, M0, TX, Idle, TrigW BT SCrT) /\
  summary_bg (run fixed init (firstn 17 trace_ro_parks)) = Some (WHeld PCE, E_per, M0, TDone, Idle, Idle) /\
  summary_bg (run fixed init trace_ro_parks) = Some (WClosed, E_done, MDone, TDone, Idle, Idle).
Proof. repeat split; vm_compute; reflexivity. Qed.
