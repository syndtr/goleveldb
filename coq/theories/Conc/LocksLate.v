(* Conc/LocksLate.v — after repair fb021ae (OpenTransaction re-checks closeC after publishing db.tr) Close never
   waits for the owner of a Transaction handle that is between calls:

     invK   once Close has read db.tr (it stands behind CL3), the open transaction -- if there is one -- is
            either the one Close read and is about to discard itself, or one whose OpenTransaction has just
            published it and is on its way to give it up (program counters OT4b, OT6, OT7, OT7d).

   With invK the strict progress theorem of LocksDeadlock.v applies in the closing phase, so the GOOD steps of
   LocksClose.v need no step of a client standing at IdleTr: the closing phase ends, without any help from the
   owners of Transaction handles, with every client at Idle or IdleTr. *)
From GL Require Import Conc.Locks Conc.LocksProofs Conc.LocksDeadlock Conc.LocksInv Conc.LocksInvBg Conc.LocksInvAll
  Conc.LocksClose.
From Coq Require Import Lia.
Local Set Warnings "-unused-intro-pattern".

Definition late_pc (pc : cpc) : bool := match pc with OT4b _ | OT6 _ | OT7 _ | OT7d _ => true | _ => false end.
(* Close has read db.tr *)
Definition crd (pc : cpc) : bool :=
  match pc with
  | CL3b | DC0 XClose | DC1 XClose | DC2 XClose | DC3 XClose | DC4 XClose | CL4 | CL5 | CL6 => true
  | _ => false
  end.
(* ... and has not yet discarded the transaction it read *)
Definition cpre (pc : cpc) : bool :=
  match pc with CL3b | DC0 XClose | DC1 XClose | DC2 XClose => true | _ => false end.

Definition invK (s : state) : Prop :=
  forall i o, crd (cli s i) = true -> trown s = Some o ->
    late_pc (cli s o) = true \/ (cpre (cli s i) = true /\ closetgt s = Some o).

Lemma invK_init : invK init.
Proof. intros i o H. discriminate. Qed.

Definition tr_effect (j : nat) (l : lbl) (s s1 : state) : Prop :=
  match l with
  | LWToTr => trown s1 = Some j /\ closetgt s1 = closetgt s
  | LRelWTr => trown s1 = None
  | LReadDbTr b => trown s1 = trown s /\ closetgt s1 = trown s /\ (b = false -> trown s = None)
  | LIfTrOpen b => trown s1 = trown s /\ closetgt s1 = closetgt s /\ tr_current s j = b
  | LOpenC => trown s1 = trown s /\ closetgt s1 = closetgt s /\ closeC s = false
  | _ => trown s1 = trown s /\ closetgt s1 = closetgt s
  end.

Lemma deliver_tr : forall b ok w s, trown (deliver b ok w s) = trown s /\ closetgt (deliver b ok w s) = closetgt s.
Proof. intros. destruct (deliver_same b ok w s) as (_ & _ & _ & _ & A & B & _). auto. Qed.

Lemma lsem_tr : forall j l arg s s1, lsem fixed (PCli j) l arg s = Some s1 -> tr_effect j l s s1.
Proof.
  intros j l arg s s1 H. destruct l; simpl in H; unfold tr_effect.
  all: try (solve [ unfold guard in H;
                    repeat match type of H with context[match ?x with _ => _ end] => destruct x eqn:? end;
                    try discriminate; inversion H; subst; simpl;
                    repeat match goal with |- context[deliver ?b ?ok ?w ?s] => destruct (deliver_tr b ok w s) as [-> ->] end;
                    auto ]).
  - (* LReadDbTr *) destruct b.
    + destruct (trown s) eqn:E; [|discriminate]. inversion H; subst. simpl. repeat split; auto. intro; discriminate.
    + apply guard_some in H. destruct H as [G ->]. apply is_none_true in G. simpl. auto.
  - (* LIfTrOpen *) apply guard_some in H. destruct H as [G ->]. apply Bool.eqb_prop in G. auto.
  - (* LOpenC *) apply guard_some in H. destruct H as [G ->]. apply negb_true_iff in G. auto.
Qed.

Lemma lsem_tr_bg : forall p l arg s s1, (forall j, p <> PCli j) -> bg_lbl l = true ->
  lsem fixed p l arg s = Some s1 -> trown s1 = trown s /\ closetgt s1 = closetgt s.
Proof.
  intros p l arg s s1 NP HB H.
  destruct p as [j | | |]; [exfalso; eapply NP; eauto | | |];
    (destruct l; try discriminate HB; simpl in H; try discriminate; unfold guard in H;
     repeat match type of H with context[match ?x with _ => _ end] => destruct x eqn:? end;
     try discriminate; inversion H; subst; simpl;
     repeat match goal with |- context[deliver ?b ?ok ?w ?s] => destruct (deliver_tr b ok w s) as [-> ->] end; auto).
Qed.

Definition wpart (pc : cpc) : bool := match pc with W1 _ | W2 | W3 | Ret | WF _ => true | _ => false end.
Lemma wpart_plain : forall pc, wpart pc = true -> crd pc = false /\ late_pc pc = false.
Proof. destruct pc; simpl; intro; try discriminate; auto. Qed.

(* a client label moves, besides the actor, at most a partner of the merge protocol *)
Lemma effect_cli_client : forall l arg s s1, client_lbl l = true -> lbl_effect l arg s s1 ->
  forall k, cli s1 k = cli s k \/ (wpart (cli s k) = true /\ wpart (cli s1 k) = true).
Proof.
  intros l arg s s1 CL EF k.
  assert (U : forall j0 x, wpart (cli s j0) = true -> wpart x = true -> cli s1 = upd (cli s) j0 x ->
              cli s1 k = cli s k \/ (wpart (cli s k) = true /\ wpart (cli s1 k) = true)).
  { intros j0 x W1 W2 E. rewrite E. destruct (upd_cases (cli s) j0 x k) as [[_ X] | [-> X]]; rewrite X; auto. }
  destruct l; try discriminate CL; unfold lbl_effect in EF;
    try (solve [destruct EF as [E _]; rewrite E; left; reflexivity]);
    try (solve [rewrite EF; left; reflexivity]).
  - destruct EF as (j0 & HJ & E & _). apply (U j0 (WF true)); auto. rewrite HJ; reflexivity.
  - destruct EF as (HJ & E & _). apply (U arg Ret); auto. rewrite HJ; reflexivity.
  - destruct EF as (HJ & E & _). apply (U arg W2); auto. rewrite HJ; reflexivity.
  - destruct EF as (j0 & HJ & E & _). apply (U j0 W3); auto. rewrite HJ; reflexivity.
  - destruct b; destruct EF as [E _]; rewrite E; left; reflexivity.
Qed.

Definition is_rd (l : lbl) : bool := match l with LReadDbTr _ => true | _ => false end.
Definition is_rdT (l : lbl) : bool := match l with LReadDbTr true => true | _ => false end.
Definition is_wtotr (l : lbl) : bool := match l with LWToTr => true | _ => false end.
Definition is_relwtr (l : lbl) : bool := match l with LRelWTr => true | _ => false end.
Definition is_ifF (l : lbl) : bool := match l with LIfTrOpen false => true | _ => false end.
Definition is_iftr (l : lbl) : bool := match l with LIfTrOpen _ => true | _ => false end.
Definition is_openc (l : lbl) : bool := match l with LOpenC => true | _ => false end.

Definition kedge_ok (pc : cpc) (e : lbl * cpc) : bool :=
  let (l, pc') := e in
  implb (crd pc') (crd pc || is_rd l) &&
  implb (cpre pc') (cpre pc || is_rdT l) &&
  implb (cpre pc && crd pc' && negb (cpre pc')) (is_relwtr l || is_ifF l) &&
  implb (cpre pc && is_iftr l) (in_close_ctx pc) &&
  implb (late_pc pc) (late_pc pc' || is_relwtr l || is_ifF l || is_openc l) &&
  implb (is_wtotr l) (late_pc pc') &&
  implb (is_rd l) (closer_phase pc && negb (crd pc)) &&
  implb (is_rdT l) (cpre pc') &&
  implb (crd pc) (negb (is_wtotr l)).
Lemma kedges_ok : forall pc, forallb (kedge_ok pc) (cedges fixed pc) = true.
Proof. intro pc; destruct pc; dparams; reflexivity. Qed.

Lemma crd_after : forall pc, crd pc = true -> closer_after pc = true.
Proof. destruct pc; simpl; intro; try discriminate; dparams; try discriminate; reflexivity. Qed.
Lemma late_not_ctx : forall pc, late_pc pc = true -> in_close_ctx pc = false /\ crd pc = false.
Proof. destruct pc; simpl; intro; try discriminate; auto. Qed.

Lemma tr_current_self : forall s j, in_close_ctx (cli s j) = false -> trown s = Some j -> tr_current s j = true.
Proof. intros s j H E. unfold tr_current, my_tr. rewrite H, E. simpl. apply Nat.eqb_refl. Qed.
Lemma tr_current_ctx : forall s j o, in_close_ctx (cli s j) = true -> closetgt s = Some o -> trown s = Some o ->
  tr_current s j = true.
Proof. intros s j o H C E. unfold tr_current, my_tr. rewrite H, C, E. simpl. apply Nat.eqb_refl. Qed.

(* a step of client j that leaves db.tr and Close's copy of it as they are.  bIF / bOC: the step's label is
   LIfTrOpen false / LOpenC, the two tests whose outcome lets a client leave late_pc or Close's clean-up *)
Lemma invK_same : forall s s1 j pc' (bIF bOC : bool),
  inv2 s -> invK s -> trown s1 = trown s -> closetgt s1 = closetgt s ->
  (forall k, cli s1 k = cli s k \/ (wpart (cli s k) = true /\ wpart (cli s1 k) = true)) ->
  (crd pc' = true -> crd (cli s j) = true) ->
  (cpre (cli s j) = true -> crd pc' = true -> cpre pc' = true \/ (bIF = true /\ in_close_ctx (cli s j) = true)) ->
  (late_pc (cli s j) = true -> late_pc pc' = true \/ bIF = true \/ bOC = true) ->
  (bIF = true -> tr_current s j = false) -> (bOC = true -> closeC s = false) ->
  invK (set_pc s1 j pc').
Proof.
  intros s s1 j pc' bIF bOC I2 K ET EC EF T1 T2 T3 HIF HOC i o CR TO.
  simpl in CR, TO. simpl. rewrite ET in TO. rewrite EC.
  assert (LO : late_pc (cli s o) = true -> late_pc (upd (cli s1) j pc' o) = true).
  { intro LT. destruct (upd_cases (cli s1) j pc' o) as [[NE X] | [-> X]]; rewrite X.
    - destruct (EF o) as [E | [W _]]; [rewrite E; auto |]. apply wpart_plain in W. destruct W; congruence.
    - destruct (T3 LT) as [Y | [Y | Y]]; auto; exfalso.
      + destruct (late_not_ctx _ LT) as [NC _]. pose proof (tr_current_self s j NC TO). specialize (HIF Y). congruence.
      + specialize (HOC Y).
        destruct (upd_cases (cli s1) j pc' i) as [[NEi Xi] | [-> Xi]]; rewrite Xi in CR.
        * assert (Ei : cli s1 i = cli s i).
          { destruct (EF i) as [E | [_ W]]; auto. apply wpart_plain in W. destruct W; congruence. }
          rewrite Ei in CR. pose proof (l5b s I2 i (crd_after _ CR)). congruence.
        * specialize (T1 CR). destruct (late_not_ctx _ LT). congruence. }
  destruct (upd_cases (cli s1) j pc' i) as [[NEi Xi] | [-> Xi]]; rewrite Xi in *.
  - assert (Ei : cli s1 i = cli s i).
    { destruct (EF i) as [E | [_ W]]; auto. apply wpart_plain in W. destruct W; congruence. }
    rewrite Ei in *. destruct (K i o CR TO) as [LT | [CP CT]]; auto.
  - pose proof (T1 CR) as CRj. destruct (K j o CRj TO) as [LT | [CP CT]]; auto.
    destruct (T2 CP CR) as [Y | [Y IC]]; auto. exfalso.
    pose proof (tr_current_ctx s j o IC CT TO). specialize (HIF Y). congruence.
Qed.

Lemma bsplit_kedge : forall pc l pc', kedge_ok pc (l, pc') = true ->
  (crd pc' = true -> crd pc = true \/ is_rd l = true) /\
  (cpre pc' = true -> cpre pc = true \/ is_rdT l = true) /\
  (cpre pc = true -> crd pc' = true -> cpre pc' = true \/ is_relwtr l = true \/ is_ifF l = true) /\
  (cpre pc = true -> is_iftr l = true -> in_close_ctx pc = true) /\
  (late_pc pc = true -> late_pc pc' = true \/ is_relwtr l = true \/ is_ifF l = true \/ is_openc l = true) /\
  (is_wtotr l = true -> late_pc pc' = true) /\
  (is_rd l = true -> closer_phase pc = true /\ crd pc = false) /\
  (is_rdT l = true -> cpre pc' = true) /\
  (crd pc = true -> is_wtotr l = false).
Proof.
  intros pc l pc' H. unfold kedge_ok in H.
  repeat (apply andb_prop in H; let H' := fresh "C" in destruct H as [H H']).
  split; [| split; [| split; [| split; [| split; [| split; [| split; [| split]]]]]]].
  - intro X. rewrite X in H. simpl in H. apply orb_prop in H. auto.
  - intro X. rewrite X in C6. simpl in C6. apply orb_prop in C6. auto.
  - intros X Y. destruct (cpre pc') eqn:Z; auto. right.
    rewrite X, Y in C5. simpl in C5. apply orb_prop in C5. auto.
  - intros X Y. rewrite X, Y in C4. exact C4.
  - intro X. rewrite X in C3. simpl in C3.
    apply orb_prop in C3. destruct C3 as [C3 | C3]; auto.
    apply orb_prop in C3. destruct C3 as [C3 | C3]; auto.
    apply orb_prop in C3. destruct C3 as [C3 | C3]; auto.
  - intro X. rewrite X in C2. exact C2.
  - intro X. rewrite X in C1. simpl in C1. apply andb_prop in C1. destruct C1 as [A B]. apply negb_true_iff in B. auto.
  - intro X. rewrite X in C0. exact C0.
  - intro X. rewrite X in C. simpl in C. apply negb_true_iff in C. exact C.
Qed.

Lemma invK_step_cli : forall s j k arg s', inv2 s -> invK s -> step fixed s (ACli j k arg) = Some s' -> invK s'.
Proof.
  intros s j k arg s' I2 K H. simpl in H.
  destruct (nth_error (cedges fixed (cli s j)) k) as [[l pc']|] eqn:N; [|discriminate].
  pose proof (nth_forallb _ _ _ _ (kedges_ok (cli s j)) N) as EK.
  pose proof (nth_forallb _ _ _ _ (cedges1_ok (cli s j)) N) as EK1.
  destruct (lsem fixed (PCli j) l arg s) as [s1|] eqn:L; [|discriminate]. inversion H; subst s'; clear H.
  pose proof (cedge1_client _ _ _ EK1) as CL.
  pose proof (effect_cli_client l arg s s1 CL (lsem_effect _ _ _ _ _ L)) as EF.
  pose proof (lsem_tr _ _ _ _ _ L) as TR.
  destruct (bsplit_kedge _ _ _ EK) as (A1 & A2 & A3 & A4 & A5 & A6 & A7 & A8 & A9).
  assert (GEN : forall bIF bOC : bool, trown s1 = trown s -> closetgt s1 = closetgt s ->
            is_rd l = false -> is_relwtr l = false -> is_ifF l = bIF -> is_openc l = bOC ->
            (is_iftr l = false -> bIF = false) ->
            (bIF = true -> tr_current s j = false) -> (bOC = true -> closeC s = false) ->
            invK (set_pc s1 j pc')).
  { intros bIF bOC ET EC N1 N2 N3 N4 N5 HIF HOC.
    apply (invK_same s s1 j pc' bIF bOC); auto.
    - intro X. destruct (A1 X); [auto | congruence].
    - intros X Y. destruct (A3 X Y) as [Z | [Z | Z]]; auto; [congruence|].
      right. split; [congruence|]. apply A4; auto. destruct (is_iftr l) eqn:E; auto. specialize (N5 eq_refl). congruence.
    - intro X. destruct (A5 X) as [Z | [Z | [Z | Z]]]; auto; [congruence | right; left; congruence | right; right; congruence]. }
  destruct l; try discriminate CL; unfold tr_effect in TR;
    try (solve [destruct TR as [ET EC]; apply (GEN false false); auto; intros; discriminate]).
  - (* LReadDbTr *)
    destruct TR as (ET & EC & EN). destruct (A7 eq_refl) as [CP NCR].
    intros i o CR TO. simpl in CR, TO. simpl. rewrite ET in TO. rewrite EC.
    destruct b; [| rewrite (EN eq_refl) in TO; discriminate].
    destruct (upd_cases (cli s1) j pc' i) as [[NEi Xi] | [-> Xi]]; rewrite Xi in *.
    + exfalso. assert (Ei : cli s1 i = cli s i).
      { destruct (EF i) as [E | [_ W]]; auto. apply wpart_plain in W. destruct W; congruence. }
      rewrite Ei in CR. apply NEi. apply (u1 s I2); auto. apply closer_after_phase. apply crd_after. auto.
    + right. split; [apply A8; reflexivity | exact TO].
  - (* LIfTrOpen *)
    destruct TR as (ET & EC & TC). apply (GEN (negb b) false); auto; try (intros; discriminate); destruct b; simpl; auto; intros; discriminate.
  - (* LWToTr *)
    destruct TR as (ET & EC). intros i o CR TO. simpl in CR, TO. simpl. rewrite ET in TO. inversion TO; subst o.
    left. rewrite upd_same. apply A6. reflexivity.
  - (* LRelWTr *)
    intros i o CR TO. simpl in TO. rewrite TR in TO. discriminate.
  - (* LOpenC *)
    destruct TR as (ET & EC & HC). apply (GEN false true); auto; intros; discriminate.
Qed.

Lemma ack_plain : forall ok pc, is_trigw_any pc = true ->
  crd (after_ack ok pc) = false /\ late_pc (after_ack ok pc) = false /\ crd pc = false /\ late_pc pc = false.
Proof. intros ok pc; destruct pc; intro H; try discriminate; dparams; repeat split; reflexivity. Qed.

Lemma invK_acked : forall ok s s1, invK s -> acked ok s s1 -> trown s1 = trown s -> closetgt s1 = closetgt s -> invK s1.
Proof.
  intros ok s s1 K A ET EC i o CR TO. rewrite ET in TO. rewrite EC.
  destruct A as [E | (j0 & T & E)]; rewrite E in *; [apply K; auto|].
  destruct (ack_plain ok _ T) as (P1 & P2 & P3 & P4).
  destruct (upd_cases (cli s) j0 (after_ack ok (cli s j0)) i) as [[NEi Xi] | [-> Xi]]; rewrite Xi in *; [| congruence].
  destruct (K i o CR TO) as [LT | X]; auto. left.
  destruct (upd_cases (cli s) j0 (after_ack ok (cli s j0)) o) as [[NEo Xo] | [-> Xo]]; rewrite Xo; [auto | congruence].
Qed.

Lemma effect_acked_bg : forall l arg s s1, bg_lbl l = true -> lbl_effect l arg s s1 -> exists ok, acked ok s s1.
Proof.
  intros l arg s s1 HB EF. destruct l; try discriminate HB; unfold lbl_effect in EF;
    try (solve [exists true; left; destruct EF as [E _]; exact E]);
    try (solve [exists true; left; exact EF]);
    try (solve [destruct EF as [A _]; eauto]).
  destruct b; [discriminate HB|]. exists true. left. destruct EF as [E _]; exact E.
Qed.

Lemma invK_frame : forall s s', invK s -> cli s' = cli s -> trown s' = trown s -> closetgt s' = closetgt s -> invK s'.
Proof. intros s s' K E1 E2 E3 i o. rewrite E1, E2, E3. apply K. Qed.

Lemma medge1_bg : forall pc l pc', medge1_ok pc (l, pc') = true -> bg_lbl l = true.
Proof. intros pc l pc' H. unfold medge1_ok in H. bsplit. assumption. Qed.
Lemma tedge1_bg : forall pc l pc', tedge1_ok pc (l, pc') = true -> bg_lbl l = true.
Proof. intros pc l pc' H. unfold tedge1_ok in H. bsplit. assumption. Qed.

Lemma invK_step : forall s a s', inv2 s -> invK s -> step fixed s a = Some s' -> invK s'.
Proof.
  intros s a s' I2 K H. destruct a as [j k arg | k | k | k].
  - eapply invK_step_cli; eauto.
  - simpl in H. destruct (nth_error (medges (mc s)) k) as [[l pc']|] eqn:N; [|discriminate].
    pose proof (medge1_bg _ _ _ (nth_forallb _ _ _ _ (medges1_ok (mc s)) N)) as HB.
    destruct (lsem fixed PM l 0 s) as [s1|] eqn:L; [|discriminate]. inversion H; subst s'; clear H.
    destruct (lsem_tr_bg PM l 0 s s1 ltac:(intros j X; discriminate) HB L) as [ET EC].
    destruct (effect_acked_bg _ _ _ _ HB (lsem_effect _ _ _ _ _ L)) as [ok A].
    apply (invK_frame s1); auto. eapply invK_acked; eauto.
  - simpl in H. destruct (nth_error (tedges (tc s)) k) as [[l pc']|] eqn:N; [|discriminate].
    pose proof (tedge1_bg _ _ _ (nth_forallb _ _ _ _ (tedges1_ok (tc s)) N)) as HB.
    destruct (lsem fixed PT l 0 s) as [s1|] eqn:L; [|discriminate]. inversion H; subst s'; clear H.
    destruct (lsem_tr_bg PT l 0 s s1 ltac:(intros j X; discriminate) HB L) as [ET EC].
    destruct (effect_acked_bg _ _ _ _ HB (lsem_effect _ _ _ _ _ L)) as [ok A].
    apply (invK_frame s1); auto. eapply invK_acked; eauto.
  - simpl in H. unfold step_ce, guard in H.
    repeat match type of H with context[match ?x with _ => _ end] => destruct x eqn:? end;
      try discriminate; inversion H; subst; (eapply invK_frame; [exact K | reflexivity ..]).
Qed.

Theorem invK_reachable : forall s, reachable fixed s -> invK s.
Proof.
  induction 1 as [| s a s' R IH ST]; [apply invK_init|].
  eapply invK_step; eauto using inv2_reachable.
Qed.

Lemma good_of_enabled : forall s a s', closeC s = true -> is_arrival fixed s a = false -> at_idletr s a = false ->
  step fixed s a = Some s' -> exists a' s'', good s a' = true /\ step fixed s a' = Some s''.
Proof.
  intros s a s' HC NA NI H. destruct a as [i k arg | k | k | k].
  - simpl in H, NA, NI.
    assert (GC : forall k0, good_cli (cli s i) k0 = true).
    { intro k0. destruct (cli s i); try reflexivity; discriminate. }
    destruct (has_close (cedges fixed (cli s i))) eqn:CL.
    + destruct (has_close_idx _ CL) as (k' & pc'' & N').
      exists (ACli i k' 0), (set_pc s i pc''). split.
      * simpl. rewrite (takes_close_at _ _ _ N'), GC. reflexivity.
      * simpl. rewrite N'. simpl. unfold guard. rewrite HC. reflexivity.
    + exists (ACli i k arg), s'. split; [| exact H]. simpl. rewrite (takes_close_none _ _ CL), GC. reflexivity.
  - simpl in H. destruct (has_close (medges (mc s))) eqn:CL.
    + destruct (has_close_idx _ CL) as (k' & pc'' & N').
      exists (AM k'), (set_mc s pc''). split; [simpl; eapply takes_close_at; eauto|].
      simpl. rewrite N'. simpl. unfold guard. rewrite HC. reflexivity.
    + exists (AM k), s'. split; [simpl; apply takes_close_none; auto | exact H].
  - simpl in H. destruct (has_close (tedges (tc s))) eqn:CL.
    + destruct (has_close_idx _ CL) as (k' & pc'' & N').
      exists (AT k'), (set_tc s pc''). split; [simpl; eapply takes_close_at; eauto|].
      simpl. rewrite N'. simpl. unfold guard. rewrite HC. reflexivity.
    + exists (AT k), s'. split; [simpl; apply takes_close_none; auto | exact H].
  - assert (NE : ce s <> E_done).
    { simpl in H. unfold step_ce in H. destruct k as [|[|k]]; destruct (ce s); try discriminate; intro; discriminate. }
    exists (ACE 1). simpl. unfold step_ce. destruct (ce s); try congruence; unfold guard; rewrite HC; eauto.
Qed.

Definition in_call (s : state) : Prop := exists i, cli s i <> Idle /\ cli s i <> IdleTr.

Theorem good_enabled : forall s, reachable fixed s -> closeC s = true -> in_call s ->
  exists a s', good s a = true /\ step fixed s a = Some s'.
Proof.
  intros s R HC P.
  destruct (progress_strict s (inv1_reachable s R) (inv2_reachable s R) HC) as (a & NA & NI & s' & ST); auto.
  - intros i o HI HO E. pose proof (invK_reachable s R i o) as K. rewrite HI in K.
    destruct (K eq_refl HO) as [LT | [CP _]]; [rewrite E in LT | ]; discriminate.
  - eapply good_of_enabled; eauto.
Qed.

(* where no good step is enabled every client is between calls: every call has returned, Close too *)
Theorem close_complete : forall s, reachable fixed s -> closeC s = true ->
  (forall a, grun s [a] = None) -> forall i, cli s i = Idle \/ cli s i = IdleTr.
Proof.
  intros s R HC ST i.
  destruct (cpc_eq_dec (cli s i) Idle) as [E | NE]; auto.
  destruct (cpc_eq_dec (cli s i) IdleTr) as [E2 | NE2]; auto. exfalso.
  destruct (good_enabled s R HC (ex_intro _ i (conj NE NE2))) as (a & s' & GD & H).
  specialize (ST a). simpl in ST. rewrite GD, H in ST. discriminate.
Qed.

(* the two together: from every reachable state in which closeC is closed, every run of good steps is finite
   (bounded by the measure) and a run that cannot be extended has returned from every call -- without any step
   of the owners of Transaction handles *)
Theorem close_terminates_core : forall s, reachable fixed s -> closeC s = true ->
  exists B, forall l s', grun s l = Some s' ->
    length l <= B /\ ((forall a, grun s' [a] = None) -> forall i, cli s' i = Idle \/ cli s' i = IdleTr).
Proof.
  intros s R HC. destruct (support_exists s R) as [N S]. exists (measure N s). intros l s' G.
  destruct (grun_keeps l N s s' R HC S G) as (A & B & C & D). split; [lia|].
  intro ST. apply close_complete; auto.
Qed.

(* no program counter of Close's own code is IdleTr: Close does not leave a Transaction handle *)
Lemma closer_not_idletr : forall pc, closer_phase pc = true -> pc <> IdleTr.
Proof. intros pc H E; subst; discriminate. Qed.
