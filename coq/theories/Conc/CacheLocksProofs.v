(* Conc/CacheLocksProofs.v — the lock layer of Conc/CacheLocks.v: under either protocol it refines the interleaved
   semantics ([kreach_c_lreach_c]), so the safety statements of Conc/CacheLtsClose.v carry over (the [_k] lemmas
   spell them out for the two-lock protocol); the one-lock protocol deadlocks (known finding
   cache-close-rlock-reentry: the witness schedule, and the two goroutines stay blocked whatever the others do);
   in the two-lock protocol no goroutine inside an operation is ever blocked, and a Close
   that holds opMu can always finish: every wait is for a goroutine that can move. *)
From GL Require Import Conc.Cache Conc.CacheLemmas Conc.CacheInv.
From GL Require Import Conc.CacheLts Conc.CacheLtsProofs Conc.CacheLtsClose Conc.CacheLocks.
From Coq Require Import Lia.

Lemma lift_some w r K' : lift w r = Some K' -> exists L', r = Some L' /\ K' = mkK L' w.
Proof. destruct r; simpl; intro E; [injection E as <-; eauto|discriminate]. Qed.

Lemma kstep_req two K t K' : kstep two K (KReq t) = Some K' ->
  t_code (get_thr t (l_thr (k_L K))) = [] /\ k_w K = None /\ K' = mkK (k_L K) (Some (t, false)).
Proof.
  cbn [kstep]. destruct (t_code _); [|discriminate]. destruct (k_w K); [discriminate|]. intros [= <-]. auto.
Qed.

Lemma kstep_acq two K t K' : kstep two K (KAcq t) = Some K' ->
  k_w K = Some (t, false) /\ rlocked_other t (l_thr (k_L K)) = false /\ K' = mkK (k_L K) (Some (t, true)).
Proof.
  cbn [kstep]. destruct (k_w K) as [[x [|]]|]; try discriminate. destruct two; [|discriminate]. cbn [andb].
  destruct (N.eqb_spec x t) as [->|]; [|discriminate]. destruct (rlocked_other t _); [discriminate|]. intros [= <-]. auto.
Qed.

Lemma kstep_act two K a K' : kstep two K (KAct a) = Some K' ->
  exists L', lstep (k_L K) a = Some L' /\ K' = mkK L' (if is_close a then None else k_w K).
Proof.
  destruct a as [t o|t]; cbn [kstep]; intro E.
  - destruct o;
      try (destruct (is_writer t (k_w K)); [discriminate|]; destruct (takes_oplock _ && _); [discriminate|];
           exact (lift_some _ _ _ E)).
    destruct (k_w K) as [[x acq]|]; [|discriminate]. destruct (_ && _ && _); [|discriminate].
    exact (lift_some _ _ _ E).
  - destruct (t_code (get_thr t (l_thr (k_L K)))) as [|i k]; [discriminate|].
    destruct (needs_mu i && _); [discriminate|]. exact (lift_some _ _ _ E).
Qed.

Lemma kstep_start two K t o K' : kstep two K (KAct (AStart t o)) = Some K' -> is_close (AStart t o) = false ->
  is_writer t (k_w K) = false /\ (takes_oplock o = true -> k_w K = None).
Proof.
  destruct o; cbn [kstep is_close takes_oplock andb]; try discriminate; intros E _;
    (destruct (is_writer t (k_w K)); [discriminate|]); (split; [reflexivity|]); intro Ho;
    (destruct (k_w K); [discriminate|reflexivity]).
Qed.

Lemma kstep_proj two K a K' : kstep two K a = Some K' ->
  match a with
  | KAct a' => lstep (k_L K) a' = Some (k_L K')
  | _ => k_L K' = k_L K
  end.
Proof.
  destruct a as [t|t|a]; intro E.
  - destruct (kstep_req _ _ _ _ E) as (_ & _ & ->). reflexivity.
  - destruct (kstep_acq _ _ _ _ E) as (_ & _ & ->). reflexivity.
  - destruct (kstep_act _ _ _ _ E) as (L' & El & ->). exact El.
Qed.

Lemma kreach_lreach two K : kreach two K -> lreach (k_L K).
Proof.
  induction 1 as [|K a K' _ IH E]; [apply lr_init|]. pose proof (kstep_proj _ _ _ _ E) as P.
  destruct a; try (rewrite P; exact IH). exact (lr_step _ _ _ IH P).
Qed.

Lemma kreach_c_lreach_c two K : kreach_c two K -> lreach_c (k_L K).
Proof.
  induction 1 as [|K a K' _ IH Hf E]; [apply lc_init|]. pose proof (kstep_proj _ _ _ _ E) as P.
  destruct a; try (rewrite P; exact IH). apply (lc_step _ a _ IH). unfold lstep_c. cbn [k_force] in Hf. rewrite Hf. exact P.
Qed.

(* the safety statements of Conc/CacheLtsClose.v, read through [kreach_c_lreach_c] in the reachable states of the
   two-lock protocol *)
Lemma one_live_value_k : forall K, kreach_c true K ->
  forall h1 h2 n1 n2, handle_node (l_g (k_L K)) h1 = Some n1 -> handle_node (l_g (k_L K)) h2 = Some n2 -> keyof n1 = keyof n2 ->
    n1 = n2 /\
    exists v, handle_value (l_g (k_L K)) h1 = Some v /\ handle_value (l_g (k_L K)) h2 = Some v /\
              ccn (n_id n1) (s_log (l_g (k_L K))) = 1%nat /\ ccv v (s_log (l_g (k_L K))) = 1%nat /\ cf v (s_log (l_g (k_L K))) = 0%nat.
Proof. intros K H. apply one_live_value_ltc. eapply kreach_c_lreach_c; eauto. Qed.

Lemma finalise_once_not_early_k : forall K, kreach_c true K ->
  (forall v, (cf v (s_log (l_g (k_L K))) <= 1)%nat) /\
  (forall x v sz, In (EvConstruct x v sz) (s_log (l_g (k_L K))) -> (1 <= cf v (s_log (l_g (k_L K))))%nat ->
     handles_on x (s_handles (l_g (k_L K))) = 0%nat) /\
  (forall x v sz, In (EvConstruct x v sz) (s_log (l_g (k_L K))) ->
     cf v (s_log (l_g (k_L K))) = 1%nat \/
     (cf v (s_log (l_g (k_L K))) = 0%nat /\ exists n, In n (s_nodes (l_g (k_L K))) /\ n_id n = x /\ n_val n = Some v)).
Proof.
  intros K H. pose proof (kreach_c_lreach_c _ _ H) as HL. split; [|split].
  - apply finalise_at_most_once_ltc; auto.
  - apply finalise_not_early_ltc; auto.
  - apply finalise_or_live_ltc; auto.
Qed.

Lemma delfunc_once_not_early_k : forall K, kreach_c true K ->
  (forall d, (cdr d (s_log (l_g (k_L K))) <= 1)%nat) /\
  (forall d x, In (EvDelReg d x) (s_log (l_g (k_L K))) -> (1 <= cdr d (s_log (l_g (k_L K))))%nat ->
     handles_on x (s_handles (l_g (k_L K))) = 0%nat) /\
  (forall d, d < s_next_did (l_g (k_L K)) ->
     cdr d (s_log (l_g (k_L K))) = 1%nat \/
     (cdr d (s_log (l_g (k_L K))) = 0%nat /\ exists n, In n (s_nodes (l_g (k_L K))) /\ In d (n_dels n))).
Proof.
  intros K H. pose proof (kreach_c_lreach_c _ _ H) as HL. split; [|split].
  - apply delfunc_at_most_once_ltc; auto.
  - apply delfunc_not_early_ltc; auto.
  - apply delfunc_ran_or_pending_ltc; auto.
Qed.

Lemma capacity_census_k : forall K, kreach_c true K ->
  s_used (l_g (k_L K)) = used_sum (s_nodes (l_g (k_L K))) /\ (s_used (l_g (k_L K)) <= Z.of_N (s_cap (l_g (k_L K))))%Z /\
  s_panic (l_g (k_L K)) = false /\
  forall n, In n (s_nodes (l_g (k_L K))) ->
    n_ref n = (Z.of_nat (handles_on (n_id n) (s_handles (l_g (k_L K)))) + (if resident n then 1 else 0)
               + pend_ref (n_id n) (l_thr (k_L K)))%Z /\ (0 <= n_ref n)%Z.
Proof.
  intros K H. pose proof (kreach_c_lreach_c _ _ H) as HL.
  destruct (capacity_respected_ltc _ HL) as [Hu Hc]. split; [exact Hu|]. split; [exact Hc|].
  split; [exact (no_panic_ltc _ HL)|exact (ref_census_ltc _ HL)].
Qed.

Lemma get_thr_set_neq t t' th l : t <> t' -> get_thr t' (set_thr t th l) = get_thr t' l.
Proof.
  intro Hne. unfold get_thr, set_thr. cbn [find fst]. destruct (N.eqb_spec t t'); [contradiction|].
  induction l as [|p l IH]; cbn [filter find]; auto.
  destruct (N.eqb_spec (fst p) t); cbn [negb].
  - destruct (N.eqb_spec (fst p) t'); [congruence|]. exact IH.
  - cbn [find]. destruct (fst p =? t'); auto.
Qed.

Lemma get_thr_set_eq t th l : get_thr t (set_thr t th l) = th.
Proof. exact (get_set_same t th l). Qed.

Lemma get_thr_found t l : t_code (get_thr t l) <> [] -> exists p, In p l /\ fst p = t /\ snd p = get_thr t l.
Proof.
  unfold get_thr. destruct (find (fun p => fst p =? t) l) as [p|] eqn:E; [|cbn; congruence].
  intros _. apply find_some in E. destruct E as [Hin He]. apply N.eqb_eq in He. eauto.
Qed.

Lemma rlocked_holder w t l : t <> w -> holds_rlock (get_thr t l) = true -> rlocked_other w l = true.
Proof.
  intros Hne Hh. assert (Hc : t_code (get_thr t l) <> []).
  { unfold holds_rlock in Hh. destruct (t_code (get_thr t l)); [rewrite andb_false_r in Hh; discriminate|congruence]. }
  destruct (get_thr_found _ _ Hc) as (p & Hin & Hf & Hs). unfold rlocked_other. apply existsb_exists.
  exists p. split; auto. rewrite Hf, Hs, Hh. destruct (N.eqb_spec t w); [contradiction|reflexivity].
Qed.

Lemma rlocked_set_thr w t th l : rlocked_other w l = false -> (t = w \/ holds_rlock th = false) ->
  rlocked_other w (set_thr t th l) = false.
Proof.
  intros Hl Hth. unfold rlocked_other, set_thr. cbn [existsb fst snd].
  apply orb_false_iff. split.
  - destruct Hth as [ Ht | Ht ]; [subst t; rewrite N.eqb_refl; reflexivity|rewrite Ht; apply andb_false_r].
  - apply not_true_is_false. intro E. apply existsb_exists in E. destruct E as (p & Hin & Hp).
    apply filter_In in Hin. destruct Hin as [Hin _].
    assert (existsb (fun p => negb (fst p =? w) && holds_rlock (snd p)) l = true) by (apply existsb_exists; eauto).
    unfold rlocked_other in Hl. congruence.
Qed.

Lemma start_rl_false o b g g' code rl : start o b g = Some (g', code, rl) -> takes_oplock o = false -> rl = false.
Proof.
  destruct o; cbn [takes_oplock]; try discriminate; cbn [start]; intros E _.
  - destruct (find (fun p => fst p =? h) (s_handles g)); injection E as <- <- <-; reflexivity.
  - destruct (s_cacher g); [|injection E as <- <- <-; reflexivity].
    destruct (run_evict_loop (set_cap c g)). injection E as <- <- <-. reflexivity.
  - destruct (s_closed g); [injection E as <- <- <-; reflexivity|]. destruct b; [discriminate|].
    destruct force; injection E as <- <- <-; reflexivity.
Qed.

(* an action changes only the entry of its goroutine, which comes to hold the operations' lock only by
   starting an operation that takes it *)
Lemma lstep_thr L a L' : lstep L a = Some L' ->
  exists th, l_thr L' = set_thr (act_thread a) th (l_thr L) /\
    (holds_rlock th = true ->
     holds_rlock (get_thr (act_thread a) (l_thr L)) = true \/ exists o, a = AStart (act_thread a) o /\ takes_oplock o = true).
Proof.
  destruct a as [t o|t]; cbn [lstep act_thread]; intro E.
  - destruct (t_code (get_thr t (l_thr L))); [|discriminate].
    destruct (start o _ _) as [[[g' code] rl]|] eqn:Es; [|discriminate]. injection E as <-.
    eexists. split; [reflexivity|]. intro Hh. right. exists o. split; [reflexivity|].
    destruct (takes_oplock o) eqn:Ho; [reflexivity|]. rewrite (start_rl_false _ _ _ _ _ _ Es Ho) in Hh. discriminate.
  - destruct (t_code (get_thr t (l_thr L))) as [|i k] eqn:Ec; [discriminate|].
    destruct (exec i (l_g L)) as [s' new]. injection E as <-.
    eexists. split; [reflexivity|]. intro Hh. left. unfold holds_rlock in *. cbn [t_rl t_code] in Hh. rewrite Ec.
    apply andb_true_iff in Hh. destruct Hh as [-> _]. reflexivity.
Qed.

Lemma dead12_blocked K : dead12 K ->
  kstep false K (KAct (AStep 1)) = None /\ (forall f, kstep false K (KAct (AStart 2 (OClose f))) = None) /\
  (forall t, kstep false K (KReq t) = None) /\ (forall t, kstep false K (KAcq t) = None) /\
  (forall o, takes_oplock o = true -> forall t, kstep false K (KAct (AStart t o)) = None).
Proof.
  intros (Hw & Hrl & x & ns & key & k & Hc). repeat split.
  - cbn [kstep]. rewrite Hc, Hw. reflexivity.
  - intro f. cbn [kstep]. rewrite Hw. cbn [N.eqb Pos.eqb Bool.eqb andb].
    assert (rlocked_other 2 (l_thr (k_L K)) = true) as ->; [|reflexivity].
    apply (rlocked_holder 2 1); [lia|]. unfold holds_rlock. rewrite Hrl, Hc. reflexivity.
  - intro t. cbn [kstep]. rewrite Hw. destruct (t_code (get_thr t (l_thr (k_L K)))); reflexivity.
  - intro t. cbn [kstep]. rewrite Hw. reflexivity.
  - intros o Ho t. cbn [kstep]. rewrite Hw.
    destruct o; try discriminate; cbn [is_writer takes_oplock andb]; destruct (2 =? t); reflexivity.
Qed.

Lemma dead12_forever K a K' : dead12 K -> kstep false K a = Some K' -> dead12 K'.
Proof.
  intros HD E. pose proof (dead12_blocked K HD) as (B1 & B2 & B3 & B4 & _).
  destruct HD as (Hw & Hrl & x & ns & key & k & Hc).
  destruct a as [t|t|a].
  - rewrite B3 in E. discriminate.
  - rewrite B4 in E. discriminate.
  - destruct (kstep_act _ _ _ _ E) as (L' & El & ->).
    assert (act_thread a <> 1) as Hne.
    { (* goroutine 1 is not idle, and its next step is blocked *)
      destruct a as [t o|t]; cbn [act_thread]; intros ->; [|rewrite B1 in E; discriminate].
      cbn [lstep] in El. rewrite Hc in El. discriminate. }
    assert (is_close a = false) as ->.
    { (* Close: only the announced goroutine 2, and it is blocked *)
      destruct a as [t [| | | | | | |f]|t]; try reflexivity.
      destruct (N.eq_dec t 2) as [->|Hne2]; [rewrite B2 in E; discriminate|].
      cbn [kstep] in E. rewrite Hw in E. destruct (N.eqb_spec 2 t); [congruence|]. discriminate. }
    destruct (lstep_thr _ _ _ El) as (th & Et & _).
    unfold dead12. cbn [k_w k_L]. rewrite Et, get_thr_set_neq by exact Hne.
    split; [exact Hw|]. split; [exact Hrl|]. exists x, ns, key, k. exact Hc.
Qed.

Lemma dead12_run : forall tr K K', dead12 K -> krun false K tr = Some K' -> dead12 K'.
Proof. exact (run_invariant (kstep false) (krun false) dead12 (fun _ => eq_refl) (fun _ _ _ => eq_refl) dead12_forever). Qed.

Lemma krun_reach two : forall tr K K', kreach two K -> krun two K tr = Some K' -> kreach two K'.
Proof. exact (run_invariant (kstep two) (krun two) (kreach two) (fun _ => eq_refl) (fun _ _ _ => eq_refl) (kr_step two)). Qed.

Lemma deadlock_trace_dead12 : exists K, krun false (kinit true 1) deadlock_trace = Some K /\ dead12 K.
Proof.
  eexists. split; [vm_compute; reflexivity|].
  split; [reflexivity|]. split; [reflexivity|]. do 4 eexists. reflexivity.
Qed.

Theorem close_deadlock_old :
  exists K, krun false (kinit true 1) deadlock_trace = Some K /\ kreach false K /\ dead12 K /\
    forall tr K', krun false K tr = Some K' ->
      dead12 K' /\ kstep false K' (KAct (AStep 1)) = None /\
      forall f, kstep false K' (KAct (AStart 2 (OClose f))) = None.
Proof.
  destruct deadlock_trace_dead12 as (K & E & HD). exists K.
  split; [exact E|]. split; [exact (krun_reach _ _ _ _ (kr_init false true 1) E)|]. split; [exact HD|].
  intros tr K' Er. pose proof (dead12_run tr K K' HD Er) as HD'.
  destruct (dead12_blocked K' HD') as (B1 & B2 & _). auto.
Qed.

Definition KInv (K : kstate) : Prop :=
  match k_w K with
  | Some (w, acq) => t_code (get_thr w (l_thr (k_L K))) = [] /\
                     (acq = true -> rlocked_other w (l_thr (k_L K)) = false)
  | None => True
  end.

Lemma kinv_step K a K' : KInv K -> kstep true K a = Some K' -> KInv K'.
Proof.
  unfold KInv. intros HI E. destruct a as [t|t|a].
  - destruct (kstep_req _ _ _ _ E) as (Ec & _ & ->). cbn. split; [exact Ec|discriminate].
  - destruct (kstep_acq _ _ _ _ E) as (Hw & Er & ->). rewrite Hw in HI. cbn. split; [apply HI|intros _; exact Er].
  - destruct (kstep_act _ _ _ _ E) as (L' & El & ->). cbn [k_w k_L].
    destruct (is_close a) eqn:Hcl; [exact I|]. destruct (k_w K) as [[w acq]|] eqn:Hw; [|exact I].
    destruct HI as [Hc Hr]. destruct (lstep_thr _ _ _ El) as (th & -> & Hth).
    (* the acting goroutine is not the waiting Close, and takes no lock that Close waits for *)
    assert (act_thread a <> w /\ forall o, a = AStart (act_thread a) o -> takes_oplock o = false) as [Hne Hop].
    { destruct a as [t o|t]; cbn [act_thread].
      - destruct (kstep_start _ _ _ _ _ E Hcl) as [Hnw Hno]. rewrite Hw in Hnw, Hno.
        split; [intros ->; cbn [is_writer] in Hnw; rewrite N.eqb_refl in Hnw; discriminate|].
        intros o' [= <-]. destruct (takes_oplock o); [discriminate (Hno eq_refl)|reflexivity].
      - split; [|discriminate]. intros ->. cbn [lstep] in El. rewrite Hc in El. discriminate. }
    rewrite get_thr_set_neq by exact Hne. split; [exact Hc|]. intro Ha. specialize (Hr Ha).
    apply rlocked_set_thr; [exact Hr|right].
    destruct (holds_rlock th); [|reflexivity]. destruct (Hth eq_refl) as [Hold|(o & Ea & Ho)].
    + rewrite (rlocked_holder w _ _ Hne Hold) in Hr. discriminate.
    + rewrite (Hop o Ea) in Ho. discriminate.
Qed.

Lemma kreach_inv K : kreach true K -> KInv K.
Proof. induction 1; [exact I|eapply kinv_step; eauto]. Qed.

(* In every reachable state of the repaired protocol:
   (1) a Close that holds opMu (announced on mu) can run its flag section at once, and nobody is inside an
       operation;
   (2) otherwise every goroutine that is inside an operation or a release can take its next step — in
       particular the nested Handle.Release of lru.Promote / Ban / Evict;
   (3) an announced Close acquires opMu as soon as no goroutine is inside an operation.
   So a Close waits only for goroutines that can move, and everyone else waits at most for that Close. *)
Theorem repaired_no_wait_cycle : forall K, kreach true K ->
  (forall w, k_w K = Some (w, true) ->
     rlocked_other w (l_thr (k_L K)) = false /\ forall f, kstep true K (KAct (AStart w (OClose f))) <> None) /\
  ((forall w, k_w K <> Some (w, true)) ->
     forall t, t_code (get_thr t (l_thr (k_L K))) <> [] -> kstep true K (KAct (AStep t)) <> None) /\
  (forall w, k_w K = Some (w, false) -> rlocked_other w (l_thr (k_L K)) = false -> kstep true K (KAcq w) <> None).
Proof.
  intros K HR. pose proof (kreach_inv K HR) as HI. unfold KInv in HI. split; [|split].
  - intros w Hw. rewrite Hw in HI. destruct HI as [Hc Hr]. specialize (Hr eq_refl). split; [exact Hr|].
    intro f. cbn [kstep]. rewrite Hw, N.eqb_refl, Hr. cbn [Bool.eqb andb negb lstep]. rewrite Hc.
    cbn [start]. destruct (s_closed (l_g (k_L K))); [discriminate|]. rewrite Hr. destruct f; discriminate.
  - intros Hnw t Hc. cbn [kstep]. destruct (t_code (get_thr t (l_thr (k_L K)))) as [|i k] eqn:Ec; [congruence|].
    assert (mu_announced true (k_w K) = false) as ->.
    { destruct (k_w K) as [[w [|]]|]; auto. exfalso. apply (Hnw w). reflexivity. }
    rewrite andb_false_r. cbn [lstep]. rewrite Ec. destruct (exec i (l_g (k_L K))). discriminate.
  - intros w Hw Hr. cbn [kstep]. rewrite Hw, N.eqb_refl, Hr. discriminate.
Qed.

(* the deadlock schedule under the repaired protocol runs to completion: goroutine 1 finishes its Get, Close
   acquires both locks, closes and evicts; everybody idle, the evicted value finalised once *)
Definition repaired_trace : list kaction :=
  deadlock_trace ++ [KAct (AStep 1); KAct (AStep 1); KAcq 2; KAct (AStart 2 (OClose false)); KAct (AStep 2); KAct (AStep 2);
                     KAct (AStart 1 (ORelease 1)); KAct (AStep 1); KAct (AStep 1)].

Theorem close_deadlock_repaired :
  exists K, krun true (kinit true 1) repaired_trace = Some K /\
    k_w K = None /\ all_idle (l_thr (k_L K)) /\ s_closed (l_g (k_L K)) = true /\ s_handles (l_g (k_L K)) = [] /\
    cf 0 (s_log (l_g (k_L K))) = 1%nat /\ cf 1 (s_log (l_g (k_L K))) = 1%nat.
Proof. eexists. split; [vm_compute; reflexivity|]. vm_compute. repeat split; auto. Qed.
