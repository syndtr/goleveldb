(* Conc/CacheTableLemmas.v — lemmas about the ingredients of Conc/CacheTable.v that do not mention the
   table: mask arithmetic (hash & mask under doubling / halving), the (ns,key) order, mNodes.search /
   insertion / removal / sort on sorted slices, list helpers. *)
From GL Require Import Conc.CacheTable.
From GL Require Mem.ListLemmas.
From Coq Require Import Lia Sorted Permutation.

Lemma ones_lt_pow : forall e, N.ones e < 2 ^ e.
Proof. intro e. rewrite N.ones_equiv. pose proof (N.pow_nonzero 2 e). lia. Qed.

Lemma ones_succ : forall e, N.ones (e + 1) = 2 * N.ones e + 1.
Proof.
  intro e. rewrite !N.ones_equiv. replace (e + 1) with (N.succ e) by lia. rewrite N.pow_succ_r'.
  pose proof (N.pow_nonzero 2 e). lia.
Qed.

Lemma pow_succ1 : forall e, 2 ^ (e + 1) = 2 * 2 ^ e.
Proof. intro e. replace (e + 1) with (N.succ e) by lia. apply N.pow_succ_r'. Qed.

Lemma land_ones_small : forall x e, x < 2 ^ e -> N.land x (N.ones e) = x.
Proof. intros. rewrite N.land_ones. apply N.mod_small; auto. Qed.

Lemma land_ones_lt : forall x e, N.land x (N.ones e) < 2 ^ e.
Proof. intros. rewrite N.land_ones. apply N.mod_lt. apply N.pow_nonzero. lia. Qed.

Lemma land_ones_ones : forall e, N.land (N.ones (e + 1)) (N.ones e) = N.ones e.
Proof.
  intro e. rewrite N.land_comm. apply land_ones_small.
  pose proof (ones_lt_pow e). rewrite pow_succ1. lia.
Qed.

(* the bucket of a node in the smaller table is determined by its bucket in the larger one *)
Lemma land_coarsen : forall x e, N.land x (N.ones e) = N.land (N.land x (N.ones (e + 1))) (N.ones e).
Proof. intros. rewrite <- N.land_assoc, land_ones_ones. reflexivity. Qed.

Lemma mod_pow_split : forall x e, x mod 2 ^ (e + 1) = x mod 2 ^ e \/ x mod 2 ^ (e + 1) = x mod 2 ^ e + 2 ^ e.
Proof.
  intros. rewrite pow_succ1, (N.mul_comm 2).
  rewrite N.mod_mul_r by (try apply N.pow_nonzero; lia).
  assert (H : (x / 2 ^ e) mod 2 < 2) by (apply N.mod_lt; lia).
  destruct ((x / 2 ^ e) mod 2) as [|p]; [left; lia|].
  destruct p; lia.
Qed.

(* hash & mask of a split bucket is i or i + len/2 *)
Lemma land_refine : forall x e, N.land x (N.ones (e + 1)) = N.land x (N.ones e) \/
                                N.land x (N.ones (e + 1)) = N.land x (N.ones e) + 2 ^ e.
Proof. intros. rewrite !N.land_ones. apply mod_pow_split. Qed.

Lemma land_ones_add_pow : forall i e, i < 2 ^ e -> N.land (i + 2 ^ e) (N.ones e) = i.
Proof.
  intros. rewrite N.land_ones. replace (i + 2 ^ e) with (i + 1 * 2 ^ e) by lia.
  rewrite N.mod_add by (apply N.pow_nonzero; lia). apply N.mod_small; auto.
Qed.

Lemma ones_pred : forall e, 2 ^ e - 1 = N.ones e.
Proof. intro. rewrite N.ones_equiv. lia. Qed.

Lemma pow_gt_one : forall e, 1 < 2 ^ e -> exists e', e = e' + 1.
Proof.
  intros e H. destruct (N.eq_dec e 0) as [->|Hne]; [simpl in H; lia|]. exists (e - 1). lia.
Qed.

Lemma nth_upd_nth_eq : forall {A} (l : list A) n x d, (n < length l)%nat -> nth n (upd_nth n x l) d = x.
Proof. induction l; simpl; intros; [lia|]. destruct n; simpl; auto. apply IHl. lia. Qed.

Lemma nth_upd_nth_neq : forall {A} (l : list A) n m x d, n <> m -> nth m (upd_nth n x l) d = nth m l d.
Proof.
  induction l; intros n m x d Hn; [reflexivity|].
  destruct n as [|n], m as [|m]; simpl; try reflexivity; try (exfalso; apply Hn; reflexivity).
  apply IHl. intro; apply Hn; f_equal; assumption.
Qed.

Lemma length_upd_nth : forall {A} (l : list A) n x, length (upd_nth n x l) = length l.
Proof. induction l; intros; [reflexivity|]. destruct n; simpl; [reflexivity|]. f_equal; apply IHl. Qed.

Lemma nth_repeat' : forall {A} (x : A) n k d, (k < n)%nat -> nth k (repeat x n) d = x.
Proof. induction n; simpl; intros; [lia|]. destruct k; auto. apply IHn. lia. Qed.

Lemma in_flat_map_iff : forall {A B} (f : A -> list B) l y, In y (flat_map f l) <-> exists x, In x l /\ In y (f x).
Proof. intros. apply in_flat_map. Qed.

Lemma NoDup_flat_map : forall {A B} (f : A -> list B) l,
  NoDup l -> (forall x, In x l -> NoDup (f x)) ->
  (forall x y z, In x l -> In y l -> In z (f x) -> In z (f y) -> x = y) ->
  NoDup (flat_map f l).
Proof.
  induction l; simpl; intros Hl Hf Hd; [constructor|].
  inversion Hl; subst. apply ListLemmas.NoDup_app_intro.
  - apply Hf; auto.
  - apply IHl; auto. intros; eapply Hd; eauto.
  - intros z Hz Hin. apply in_flat_map in Hin. destruct Hin as [y [Hy Hzy]].
    assert (a = y) by (apply (Hd a y z); auto). subst. contradiction.
Qed.

Lemma filter_flat_map : forall {A B} (p : B -> bool) (f : A -> list B) l,
  filter p (flat_map f l) = flat_map (fun x => filter p (f x)) l.
Proof. induction l; simpl; auto. rewrite filter_app, IHl. reflexivity. Qed.

Lemma flat_map_ext_in : forall {A B} (f g : A -> list B) l,
  (forall x, In x l -> f x = g x) -> flat_map f l = flat_map g l.
Proof. induction l; simpl; intros; auto. rewrite H, IHl; auto. Qed.

Lemma in_seq_N : forall n i, In i (map N.of_nat (seq 0 n)) <-> i < N.of_nat n.
Proof.
  intros. rewrite in_map_iff. split.
  - intros [k [Hk Hin]]. apply in_seq in Hin. lia.
  - intros. exists (N.to_nat i). split; [lia|]. apply in_seq. lia.
Qed.

Lemma NoDup_seq_N : forall n, NoDup (map N.of_nat (seq 0 n)).
Proof.
  intros. apply FinFun.Injective_map_NoDup; [|apply seq_NoDup].
  intros a b Hab. lia.
Qed.

Lemma flat_map_map_r : forall {A B C} (f : B -> list C) (g : A -> B) l,
  flat_map f (map g l) = flat_map (fun x => f (g x)) l.
Proof. induction l; simpl; auto. rewrite IHl. reflexivity. Qed.

Lemma flat_map_nil : forall {A B} (f : A -> list B) l, (forall x, In x l -> f x = []) -> flat_map f l = [].
Proof. induction l; simpl; intros; auto. rewrite H by auto. rewrite IHl; auto. Qed.

Lemma Permutation_filter : forall {A} (p : A -> bool) l l', Permutation l l' -> Permutation (filter p l) (filter p l').
Proof.
  intros A p l l' H. induction H; simpl; auto.
  - destruct (p x); auto.
  - destruct (p x), (p y); auto. apply perm_swap.
  - eapply perm_trans; eauto.
Qed.

Definition tkey (x : tnode) : N * N := (tn_ns x, tn_key x).
Definition klt (a b : tnode) : Prop := tn_lt (tn_ns b) (tn_key b) a = true.
Definition ssorted (l : list tnode) : Prop := StronglySorted klt l.

Lemma tn_lt_spec : forall ns key x,
  tn_lt ns key x = true <-> (tn_ns x < ns \/ (tn_ns x = ns /\ tn_key x < key)).
Proof.
  intros. unfold tn_lt. destruct (N.eqb_spec (tn_ns x) ns); rewrite N.ltb_lt; lia.
Qed.

Lemma tn_lt_false : forall ns key x,
  tn_lt ns key x = false <-> (ns < tn_ns x \/ (tn_ns x = ns /\ key <= tn_key x)).
Proof.
  intros. unfold tn_lt. destruct (N.eqb_spec (tn_ns x) ns); rewrite N.ltb_ge; lia.
Qed.

Lemma tn_eq_spec : forall ns key x, tn_eq ns key x = true <-> (tn_ns x = ns /\ tn_key x = key).
Proof. intros. unfold tn_eq. rewrite andb_true_iff, !N.eqb_eq. tauto. Qed.

Lemma tn_eq_false : forall ns key x, tn_eq ns key x = false <-> (tn_ns x <> ns \/ tn_key x <> key).
Proof.
  intros. unfold tn_eq. rewrite andb_false_iff, !N.eqb_neq. tauto.
Qed.

Lemma klt_spec : forall a b, klt a b <-> (tn_ns a < tn_ns b \/ (tn_ns a = tn_ns b /\ tn_key a < tn_key b)).
Proof. intros. unfold klt. apply tn_lt_spec. Qed.

Lemma klt_trans : forall a b c, klt a b -> klt b c -> klt a c.
Proof. intros a b c. rewrite !klt_spec. lia. Qed.

Lemma klt_neq : forall a b, klt a b -> tkey a <> tkey b.
Proof. intros a b. rewrite klt_spec. unfold tkey. intros H E. inversion E. lia. Qed.

Lemma ssorted_inv : forall x l, ssorted (x :: l) -> ssorted l /\ (forall y, In y l -> klt x y).
Proof. intros x l H. inversion H; subst. split; auto. apply Forall_forall; auto. Qed.

Lemma ssorted_cons : forall x l, ssorted l -> (forall y, In y l -> klt x y) -> ssorted (x :: l).
Proof. intros. constructor; auto. apply Forall_forall; auto. Qed.

Lemma ssorted_filter : forall p l, ssorted l -> ssorted (filter p l).
Proof.
  induction l; simpl; intros; auto. apply ssorted_inv in H. destruct H as [Hs Hl].
  destruct (p a); auto. apply ssorted_cons; auto. intros y Hy. apply filter_In in Hy. apply Hl. tauto.
Qed.

Lemma ssorted_keys_nodup : forall l, ssorted l -> NoDup (map tkey l).
Proof.
  induction l; simpl; intros; [constructor|]. apply ssorted_inv in H. destruct H as [Hs Hl].
  constructor; auto. intro Hin. apply in_map_iff in Hin. destruct Hin as [y [Hy Hin]].
  apply Hl in Hin. apply klt_neq in Hin. congruence.
Qed.

Lemma ssorted_nodup : forall l, ssorted l -> NoDup l.
Proof. intros l H. apply (NoDup_map_inv tkey), ssorted_keys_nodup, H. Qed.

Lemma find_key_in : forall ns key l n, NoDup (map tkey l) -> In n l -> tn_eq ns key n = true ->
  find (tn_eq ns key) l = Some n.
Proof.
  induction l; simpl; intros n Hnd Hin He; [contradiction|]. inversion Hnd; subst.
  destruct Hin as [->|Hin]; [rewrite He; auto|].
  destruct (tn_eq ns key a) eqn:Ea; [|apply IHl; auto].
  exfalso. apply H1. apply in_map_iff. exists n. split; auto.
  apply tn_eq_spec in He. apply tn_eq_spec in Ea. unfold tkey. destruct He, Ea. congruence.
Qed.

Lemma search_find : forall ns key l, ssorted l ->
  match nth_error l (search ns key l) with
  | Some n => if tn_eq ns key n then Some n else None
  | None => None
  end = find (tn_eq ns key) l.
Proof.
  induction l; simpl; intros Hs; auto. apply ssorted_inv in Hs. destruct Hs as [Hs Hl].
  destruct (tn_lt ns key a) eqn:Hlt; simpl.
  - rewrite IHl by auto. apply tn_lt_spec in Hlt.
    assert (tn_eq ns key a = false) by (apply tn_eq_false; lia). rewrite H. reflexivity.
  - destruct (tn_eq ns key a) eqn:He; auto. symmetry. apply ListLemmas.find_none_intro. intros y Hy.
    apply Hl in Hy. apply klt_spec in Hy. apply tn_lt_false in Hlt. apply tn_eq_false in He.
    apply tn_eq_false. lia.
Qed.

Lemma insert_search : forall ns key n l, tn_ns n = ns -> tn_key n = key ->
  find (tn_eq ns key) l = None -> insert_at (search ns key l) n l = sort_insert n l.
Proof.
  intros ns key n l Hns Hkey. induction l; simpl; intros Hf; auto.
  destruct (tn_eq ns key a) eqn:He; [discriminate|].
  apply tn_eq_false in He.
  destruct (tn_lt ns key a) eqn:Hlt.
  - apply tn_lt_spec in Hlt.
    assert (tn_lt (tn_ns a) (tn_key a) n = false) by (apply tn_lt_false; lia). rewrite H.
    unfold insert_at in *. simpl. f_equal. apply IHl; auto.
  - apply tn_lt_false in Hlt.
    assert (tn_lt (tn_ns a) (tn_key a) n = true) by (apply tn_lt_spec; lia). rewrite H.
    reflexivity.
Qed.

Lemma sort_insert_in : forall x l y, In y (sort_insert x l) <-> y = x \/ In y l.
Proof.
  induction l; simpl; intros; [intuition|].
  destruct (tn_lt (tn_ns a) (tn_key a) x); simpl; [intuition|]. rewrite IHl. intuition.
Qed.

Lemma sort_insert_perm : forall x l, Permutation (sort_insert x l) (x :: l).
Proof.
  induction l; simpl; auto. destruct (tn_lt (tn_ns a) (tn_key a) x); auto.
  eapply perm_trans; [apply perm_skip; exact IHl|apply perm_swap].
Qed.

Lemma sort_insert_sorted : forall x l, ssorted l -> (forall y, In y l -> tkey y <> tkey x) -> ssorted (sort_insert x l).
Proof.
  induction l; simpl; intros Hs Hd; [constructor; auto|].
  apply ssorted_inv in Hs. destruct Hs as [Hs Hl].
  destruct (tn_lt (tn_ns a) (tn_key a) x) eqn:Hlt.
  - apply ssorted_cons; [apply ssorted_cons; auto|].
    intros y [->|Hy]; [exact Hlt|]. eapply klt_trans; [exact Hlt|]. apply Hl; auto.
  - apply ssorted_cons; [apply IHl; auto|].
    intros y Hy. apply sort_insert_in in Hy. destruct Hy as [->|Hy]; [|apply Hl; auto].
    apply klt_spec. apply tn_lt_false in Hlt.
    assert (tkey a <> tkey x) by (apply Hd; auto). unfold tkey in H.
    destruct (N.eq_dec (tn_ns a) (tn_ns x)); [|lia].
    destruct (N.eq_dec (tn_key a) (tn_key x)); [congruence|lia].
Qed.

Lemma remove_search : forall ns key l n, ssorted l -> nth_error l (search ns key l) = Some n ->
  tn_eq ns key n = true -> remove_at (search ns key l) l = filter (fun x => negb (tn_eq ns key x)) l.
Proof.
  induction l; simpl; intros n Hs Hn He; [destruct (search ns key []); discriminate|].
  apply ssorted_inv in Hs. destruct Hs as [Hs Hl].
  destruct (tn_lt ns key a) eqn:Hlt.
  - simpl in Hn. apply tn_lt_spec in Hlt.
    assert (tn_eq ns key a = false) by (apply tn_eq_false; lia). rewrite H. simpl.
    unfold remove_at in *. simpl. f_equal. eapply IHl; eauto.
  - simpl in Hn. inversion Hn; subst. rewrite He. simpl. unfold remove_at. simpl.
    symmetry. apply ListLemmas.filter_all. intros y Hy. apply Hl in Hy. apply klt_spec in Hy.
    apply tn_eq_spec in He. apply negb_true_iff, tn_eq_false. lia.
Qed.

Lemma sort_nodes_in : forall l y, In y (sort_nodes l) <-> In y l.
Proof.
  induction l; simpl; intros; [tauto|]. rewrite sort_insert_in, IHl. intuition.
Qed.

Lemma sort_nodes_sorted : forall l, NoDup (map tkey l) -> ssorted (sort_nodes l).
Proof.
  induction l; simpl; intros Hnd; [constructor|]. inversion Hnd as [|k ks Hnotin Hnd']; subst.
  apply sort_insert_sorted; [apply IHl; exact Hnd'|].
  intros y Hy E. rewrite sort_nodes_in in Hy.
  apply Hnotin. rewrite <- E. apply in_map; auto.
Qed.

(* enumerateNodesByNS's scan of one bucket *)
Lemma take_ns_filter : forall ns l, ssorted l -> (forall y, In y l -> ns <= tn_ns y) ->
  take_ns ns l = filter (fun x => tn_ns x =? ns) l.
Proof.
  induction l; simpl; intros Hs Hge; auto. apply ssorted_inv in Hs. destruct Hs as [Hs Hl].
  destruct (N.eqb_spec (tn_ns a) ns).
  - f_equal. apply IHl; auto.
  - symmetry. apply ListLemmas.filter_none. intros y Hy. apply N.eqb_neq.
    assert (ns <= tn_ns a) by (apply Hge; auto). apply Hl in Hy. apply klt_spec in Hy. lia.
Qed.

Lemma pick_ns_filter : forall ns l, ssorted l -> pick_ns ns l = filter (fun x => tn_ns x =? ns) l.
Proof.
  unfold pick_ns. induction l; simpl; intros Hs; auto.
  pose proof Hs as Hs0. apply ssorted_inv in Hs. destruct Hs as [Hs Hl].
  destruct (tn_lt ns 0 a) eqn:Hlt.
  - simpl. rewrite IHl by auto. apply tn_lt_spec in Hlt.
    destruct (N.eqb_spec (tn_ns a) ns); [lia|reflexivity].
  - simpl skipn. apply tn_lt_false in Hlt. apply (take_ns_filter ns (a :: l)); auto.
    intros y [<-|Hy]; [lia|]. apply Hl in Hy. apply klt_spec in Hy. lia.
Qed.

Lemma map_flat_map : forall {A B C} (f : B -> C) (g : A -> list B) l,
  map f (flat_map g l) = flat_map (fun x => map f (g x)) l.
Proof. induction l; simpl; auto. rewrite map_app, IHl. reflexivity. Qed.
