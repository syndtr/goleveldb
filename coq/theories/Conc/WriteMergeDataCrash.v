(* Conc/WriteMergeDataCrash.v — the journal log of the writer protocol (Conc/WriteMergeData.v) read as a
   history of the L2 persistence model (Store/Crash.v): a successful writeJournal call is [PWrite count
   sync] (append, then Sync iff asked), a failed one [PSkipSeq count] (nothing durable, its numbers
   consumed), sequence numbers consumed in between (a committing transaction) are [PSkipSeq gap].  With
   [crash_safe] of the L2 model: a writer that asked for Sync and got nil is recovered from EVERY crash
   image of EVERY later history of the store. *)
From Coq Require Import List Lia.
From GL Require Import Conc.WriteMerge Conc.WriteMergeData Conc.WriteMergeDataProofs
  Conc.WriteMergeDataTheorems Store.Crash Store.CrashProofs.
From GL Require Store.FaultsProofs.
Import ListNotations.
Local Open Scope N_scope.

Definition batch_of (r : drec) : batch := {| b_seq := dr_seq r; b_n := rec_count r |}.

(* lo = the next free sequence number (db.seq + 1) before the record *)
Fixpoint pops_of (lo : N) (JL : list drec) : list pop :=
  match JL with
  | [] => []
  | r :: t =>
      PSkipSeq (dr_seq r - lo) ::
      (if dr_ok r then PWrite (rec_count r) (dr_sync r) else PSkipSeq (rec_count r)) ::
      pops_of (dr_seq r + rec_count r) t
  end.

Lemma p_acked_mono_run ops : forall s b, In b (p_acked s) -> In b (p_acked (fold_left pstep ops s)).
Proof. induction ops as [|o ops IH]; intros s b H; cbn [fold_left]; auto. apply IH. apply FaultsProofs.pstep_acked_incl. exact H. Qed.

Lemma pops_acked JL : forall lo s r, jsorted lo JL -> (p_seq s + 1 = lo) -> In r JL ->
  dr_ok r = true -> dr_sync r = true -> (1 <= rec_count r) ->
  In (batch_of r) (p_acked (fold_left pstep (pops_of lo JL) s)).
Proof.
  induction JL as [|a JL IH]; intros lo s r Hs Hlo Hin Hok Hsy Hc; [contradiction|].
  cbn [jsorted] in Hs. destruct Hs as [Hle Hs]. cbn [pops_of fold_left].
  set (s1 := pstep s (PSkipSeq (dr_seq a - lo))).
  assert (H1 : p_seq s1 + 1 = dr_seq a) by (unfold s1; cbn [pstep p_seq]; lia).
  set (s2 := pstep s1 (if dr_ok a then PWrite (rec_count a) (dr_sync a) else PSkipSeq (rec_count a))).
  assert (H2 : p_seq s2 + 1 = dr_seq a + rec_count a).
  { unfold s2. destruct (dr_ok a); cbn [pstep]; [|cbn [p_seq]; lia].
    destruct (rec_count a =? 0) eqn:E0; cbn [p_seq]; [apply N.eqb_eq in E0|]; lia. }
  destruct Hin as [->|Hin].
  - apply p_acked_mono_run. unfold s2. rewrite Hok, Hsy. cbn [pstep].
    assert (E0 : (rec_count r =? 0) = false) by (apply N.eqb_neq; lia). rewrite E0. cbn [p_acked].
    apply in_or_app. right. left. unfold batch_of. f_equal. lia.
  - apply (IH _ s2 r Hs H2 Hin Hok Hsy Hc).
Qed.

Lemma seg_len_in (b : list seg) i n : In (i, n) b -> (n <= seg_len b).
Proof.
  induction b as [|x b IH]; simpl; intros H; [contradiction|]. destruct H as [->|H]; simpl; [lia|].
  specialize (IH H). lia.
Qed.

Section Durable.
Variable mp : mparams.
Variable rq : reqtab.

(* every writer that asked for Sync and holds (or has returned) nil: its record is recovered — with the
   sequence numbers it was given — from every crash image of the store, after any later history [more]
   of writes, rotations, flushes, transactions, crashes and reopenings *)
Theorem sync_ack_is_durable n x i w : xreachable mp v_real rq n 0 x -> nth_error (ws (xb x)) i = Some w ->
  (pc w = WRet ROk \/ pc w = WDone ROk) -> rq_sync (rq i) = true -> (1 <= req_nrec (rq i)) ->
  exists r, In r (djl (xd x)) /\ In i (rec_ids r) /\
    forall more img, is_image (prun (pops_of 1 (djl (xd x)) ++ more)) img -> In (batch_of r) (recover img).
Proof.
  intros R Hi Hp Hs Hn. destruct (sync_ack_implies_synced mp rq n 0 x i w R Hi Hp Hs) as (r & Hr & Hok & Hin & Hsy).
  exists r. repeat split; auto. intros more img Himg.
  destruct (crash_safe _ _ Himg) as [Hack _]. apply Hack. unfold prun. rewrite fold_left_app.
  apply p_acked_mono_run. apply pops_acked; auto.
  - apply (seq_ranges_increase mp rq n 0 x R).
  - (* the record is not empty: it holds the records of i *)
    pose proof (xreachable_XI mp rq n 0 x R) as HX.
    destruct (Forall2_in_l _ _ _ r (xi_J _ _ _ HX) Hr) as (j & _ & HG). pose proof (rg_nrec _ _ _ HG) as Hnr.
    unfold rec_ids, seg_ids in Hin. apply in_map_iff in Hin. destruct Hin as ([i' k] & Hfst & Hseg). simpl in Hfst. subst i'.
    rewrite Forall_forall in Hnr. pose proof (Hnr _ Hseg) as Hk. simpl in Hk.
    pose proof (seg_len_in _ _ _ Hseg). unfold rec_count. lia.
Qed.

End Durable.
