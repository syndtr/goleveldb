(* Conc/WriteMergeDataTheorems.v — the statements about the data layer of the writer serialisation
   and merge protocol (Conc/WriteMergeData.v), derived from the invariants of
   Conc/WriteMergeDataProofs.v.  Everything is for the code as it is ([v_real]), any number n of
   writers, any request table rq, any merge-limit constants mp, any initial db.seq, and every
   reachable state of the data-carrying system (all interleavings). *)
From Coq Require Import List NArith Lia Permutation.
From GL Require Import Mem.ListLemmas Conc.WriteMerge Conc.WriteMergeProofs Conc.WriteMergeData Conc.WriteMergeDataProofs.
Import ListNotations.

Lemma NoDup_concat_in {A} (ls : list (list A)) l : NoDup (concat ls) -> In l ls -> NoDup l.
Proof.
  induction ls as [|a ls IH]; simpl; intros Hn Hin; [contradiction|].
  destruct Hin as [->|Hin].
  - apply NoDup_app_l in Hn. exact Hn.
  - apply IH; auto. apply NoDup_app_r in Hn. exact Hn.
Qed.

(* an element of a duplicate-free concatenation lies in one list only *)
Lemma NoDup_concat_unique {A} (ls : list (list A)) x : NoDup (concat ls) ->
  forall k1 k2 l1 l2, nth_error ls k1 = Some l1 -> nth_error ls k2 = Some l2 -> In x l1 -> In x l2 -> k1 = k2.
Proof.
  induction ls as [|a ls IH]; intros Hn k1 k2 l1 l2 H1 H2 I1 I2; [destruct k1; discriminate|].
  simpl in Hn. destruct k1, k2; simpl in H1, H2; auto.
  - inversion H1; subst. exfalso. eapply NoDup_app_disjoint; eauto. apply in_concat. exists l2. split; auto.
    eapply nth_error_In; eauto.
  - inversion H2; subst. exfalso. eapply NoDup_app_disjoint; eauto. apply in_concat. exists l1. split; auto.
    eapply nth_error_In; eauto.
  - f_equal. eapply IH; eauto. apply NoDup_app_r in Hn. exact Hn.
Qed.

Lemma Forall2_in_l {A B} (R : A -> B -> Prop) l1 l2 a : Forall2 R l1 l2 -> In a l1 -> exists b, In b l2 /\ R a b.
Proof.
  induction 1; simpl; intros Hin; [contradiction|]. destruct Hin as [->|Hin].
  - eauto.
  - destruct (IHForall2 Hin) as (b & Hb & HR). eauto.
Qed.

Lemma Forall2_impl_in {A B} (R R' : A -> B -> Prop) l1 l2 :
  (forall a b, In a l1 -> In b l2 -> R a b -> R' a b) -> Forall2 R l1 l2 -> Forall2 R' l1 l2.
Proof.
  intros H F. induction F; constructor.
  - apply H; simpl; auto.
  - apply IHF. intros a b Ha Hb. apply H; simpl; auto.
Qed.

(* the merge limit of the code, in words *)
Lemma merge_limit_bounds mp sz free :
  (merge_limit mp sz free <= free - sz)%N /\
  ((mergeThreshold mp <? sz)%N = false -> (merge_limit mp sz free <= mergeSmallLimit mp)%N) /\
  ((mergeThreshold mp <? sz)%N = true -> (merge_limit mp sz free <= mergeBigLimit mp - sz)%N).
Proof.
  unfold merge_limit. destruct (mergeThreshold mp <? sz)%N; cbv zeta;
  match goal with |- context [(?a <? ?b)%N] => destruct (a <? b)%N eqn:E end;
  try apply N.ltb_lt in E; try apply N.ltb_ge in E; repeat split; intros; try discriminate; lia.
Qed.

Section Theorems.
Variable mp : mparams.
Variable rq : reqtab.

Notation reach := (xreachable mp v_real rq).

(* every run of the data-carrying system is a run of the base system: all theorems of
   Conc/WriteMergeProofs.v (mutex, hand-over, acknowledgement counts, results, ...) apply *)
Theorem data_run_is_base_run n q0 x : reach n q0 x -> reachable mp n (xb x).
Proof. apply xreachable_base. Qed.

(* [j_batches j] is the group in MERGE order (leader, then the requests in the order they were
   merged; = leader :: the writers that received `true`).  The record holds exactly these
   requests, each once, the leader's records first; the Write(batch) requests keep their merge
   order and so do the Put/Delete requests (these are collected in ourBatch, which sits where the
   leader's own batch — putRec — or the first merged Put/Delete put it: the record order is merge
   order up to that regrouping, and is exactly merge order when no Put/Delete is merged after a
   batch); every request contributes the number of records it has. *)
Definition record_of_group (r : drec) (j : jrecd) : Prop :=
  dr_leader r = j_leader j /\ dr_ok r = j_ok j /\
  j_batches j = j_leader j :: j_replied j /\
  Permutation (rec_ids r) (j_batches j) /\ NoDup (rec_ids r) /\
  hd_error (rec_ids r) = Some (j_leader j) /\
  filter (putid rq) (rec_ids r) = filter (putid rq) (j_batches j) /\
  filter (nputid rq) (rec_ids r) = filter (nputid rq) (j_batches j) /\
  Forall (fun sg : seg => snd sg = req_nrec (rq (fst sg))) (dr_segs r).

Theorem group_record_is_group n q0 x : reach n q0 x ->
  Forall2 record_of_group (djl (xd x)) (jlog (xb x)).
Proof.
  intros R. pose proof (xreachable_XI mp rq n q0 x R) as [H1 H2 H3 H4 H5 H6 H7 H8 H9 H10 H11 H12].
  unfold Jinv in H12. eapply Forall2_impl_in; [|exact H12].
  intros r j Hr Hj [G1 G2 G3 G4 G5 G6 G7].
  rewrite Forall_forall in H3. pose proof (H3 j Hj) as Hjok. unfold jok in Hjok.
  repeat split; auto.
  - apply (filters_perm (putid rq)); auto.
  - apply (NoDup_concat_in (map rec_ids (djl (xd x)))); [apply (n_nodup _ _ H7)|]. apply in_map. exact Hr.
  - rewrite G5, Hjok. reflexivity.
Qed.

(* no request is in two records, or twice in one *)
Theorem no_request_journalled_twice n q0 x : reach n q0 x -> NoDup (concat (map rec_ids (djl (xd x)))).
Proof. intros R. apply (n_nodup _ _ (xi_N _ _ _ (xreachable_XI mp rq n q0 x R))). Qed.

Theorem request_in_one_record n q0 x i k1 k2 r1 r2 : reach n q0 x ->
  nth_error (djl (xd x)) k1 = Some r1 -> nth_error (djl (xd x)) k2 = Some r2 ->
  In i (rec_ids r1) -> In i (rec_ids r2) -> k1 = k2.
Proof.
  intros R H1 H2 I1 I2. pose proof (no_request_journalled_twice n q0 x R) as Hn.
  eapply (NoDup_concat_unique _ i Hn k1 k2 (rec_ids r1) (rec_ids r2)); auto; rewrite nth_error_map.
  - rewrite H1. reflexivity.
  - rewrite H2. reflexivity.
Qed.

(* none lost: a writer that holds (or has returned) a nil result is in a record whose write succeeded
   — the statement is about every reachable state, in particular the state in which the result
   has just been received, so the record was written before the result was sent *)
Theorem acked_request_is_journalled n q0 x i w : reach n q0 x -> nth_error (ws (xb x)) i = Some w ->
  (pc w = WRet ROk \/ pc w = WDone ROk) ->
  exists r, In r (djl (xd x)) /\ dr_ok r = true /\ In i (rec_ids r).
Proof.
  intros R Hi Hp. apply (xi_R _ _ _ (xreachable_XI mp rq n q0 x R) i w Hi).
  destruct Hp as [Hp|Hp]; rewrite Hp; reflexivity.
Qed.

Theorem group_sync_is_or n q0 x r : reach n q0 x -> In r (djl (xd x)) ->
  dr_sync r = existsb (fun i => rq_sync (rq i)) (rec_ids r).
Proof.
  intros R Hr. pose proof (xreachable_XI mp rq n q0 x R) as HX.
  destruct (Forall2_in_l _ _ _ r (xi_J _ _ _ HX) Hr) as (j & Hj & [G1 G2 G3 G4 G5 G6 G7]).
  rewrite G6. unfold syncof. apply existsb_perm. apply Permutation_sym. apply (filters_perm (putid rq)); auto.
Qed.

Theorem sync_ack_implies_synced n q0 x i w : reach n q0 x -> nth_error (ws (xb x)) i = Some w ->
  (pc w = WRet ROk \/ pc w = WDone ROk) -> rq_sync (rq i) = true ->
  exists r, In r (djl (xd x)) /\ dr_ok r = true /\ In i (rec_ids r) /\ dr_sync r = true.
Proof.
  intros R Hi Hp Hs. destruct (acked_request_is_journalled n q0 x i w R Hi Hp) as (r & Hr & Hok & Hin).
  exists r. repeat split; auto. rewrite (group_sync_is_or n q0 x r R Hr). apply existsb_exists. exists i. auto.
Qed.

(* what a reader of the journal assigns (header seq, then consecutively in file order) is consecutive,
   covers the record's requests in record order, and is what the putMem loop inserts *)
Theorem record_numbering_consecutive r :
  consecutive (dr_seq r) (rec_numbering r) /\ map (fun t => fst (fst t)) (rec_numbering r) = rec_ids r.
Proof. split; [apply put_batch_consecutive|apply put_batch_ids]. Qed.

Theorem putmem_loop_is_record_numbering q bs : put_all q bs = put_batch q (concat bs).
Proof. apply put_all_concat. Qed.

Lemma holder_dec (H : wpc -> bool) L :
  (exists l wl, nth_error L l = Some wl /\ H (pc wl) = true) \/ (forall l wl, nth_error L l = Some wl -> H (pc wl) = false).
Proof.
  induction L as [|w L IH].
  - right. intros l wl Hl. destruct l; discriminate.
  - destruct (H (pc w)) eqn:E.
    + left. exists 0, w. auto.
    + destruct IH as [(l & wl & Hl & Hp)|IH].
      * left. exists (S l), wl. auto.
      * right. intros l wl Hl. destruct l; simpl in Hl; [inversion Hl; subst; auto|eauto].
Qed.

(* the memdb is filled in journal order with the journal's numbering: what has been inserted is the
   numbering of the successfully written records, in order — all of them, except that the group
   whose leader is just between writeJournal and its putMem loop is still to come *)
Theorem memdb_order_is_journal_order n q0 x : reach n q0 x ->
  (exists rest, dmem (xd x) ++ rest = numbering_all (djl (xd x))) /\
  ((forall l wl, nth_error (ws (xb x)) l = Some wl -> isapply (pc wl) = false) ->
   dmem (xd x) = numbering_all (djl (xd x))).
Proof.
  intros R. destruct (xi_A _ _ _ (xreachable_XI mp rq n q0 x R)) as [A1 A2]. split; auto.
  destruct (holder_dec isapply (ws (xb x))) as [(l & wl & Hl & Hp)|Hno].
  - eexists. apply (A1 l wl Hl Hp).
  - exists []. rewrite app_nil_r. auto.
Qed.

(* the three facts above in one statement: sequence numbers follow RECORD order — the order of the requests
   in the journal record, which is merge order only up to the ourBatch regrouping (record_of_group) — and the
   memdb is filled in that order *)
Theorem seq_order_is_merge_order n q0 x : reach n q0 x ->
  (forall r, In r (djl (xd x)) ->
     consecutive (dr_seq r) (rec_numbering r) /\ map (fun t => fst (fst t)) (rec_numbering r) = rec_ids r) /\
  (forall q bs, put_all q bs = put_batch q (concat bs)) /\
  (exists rest, dmem (xd x) ++ rest = numbering_all (djl (xd x))) /\
  ((forall l wl, nth_error (ws (xb x)) l = Some wl -> isapply (pc wl) = false) ->
   dmem (xd x) = numbering_all (djl (xd x))).
Proof.
  intros R. split; [intros r _; apply record_numbering_consecutive|].
  split; [exact putmem_loop_is_record_numbering | exact (memdb_order_is_journal_order n q0 x R)].
Qed.

(* the sequence ranges of the records — of failed writes too — increase along the log: a record never
   reuses a number of an earlier one *)
Theorem seq_ranges_increase n q0 x : reach n q0 x -> jsorted 1 (djl (xd x)).
Proof. intros R. apply (xi_S _ _ _ (xreachable_XI mp rq n q0 x R)). Qed.

Lemma jsorted_pairs JL : forall lo, jsorted lo JL ->
  forall k1 k2 r1 r2, k1 < k2 -> nth_error JL k1 = Some r1 -> nth_error JL k2 = Some r2 ->
  (dr_seq r1 + rec_count r1 <= dr_seq r2)%N.
Proof.
  assert (Hlo : forall JL lo k r, jsorted lo JL -> nth_error JL k = Some r -> (lo <= dr_seq r)%N).
  { induction JL0 as [|a JL0 IH]; intros lo k r Hs Hk; [destruct k; discriminate|].
    simpl in Hs. destruct Hs as [H1 H2]. destruct k; simpl in Hk.
    - inversion Hk; subst; auto.
    - specialize (IH _ _ _ H2 Hk). lia. }
  induction JL as [|a JL IH]; intros lo Hs k1 k2 r1 r2 Hlt H1 H2; [destruct k1; discriminate|].
  simpl in Hs. destruct Hs as [Ha Hs]. destruct k2; [lia|]. simpl in H2. destruct k1; simpl in H1.
  - inversion H1; subst. apply (Hlo JL _ k2 r2 Hs H2).
  - apply (IH _ Hs k1 k2 r1 r2); auto. lia.
Qed.

Theorem seq_ranges_disjoint n q0 x k1 k2 r1 r2 : reach n q0 x -> k1 < k2 ->
  nth_error (djl (xd x)) k1 = Some r1 -> nth_error (djl (xd x)) k2 = Some r2 ->
  (dr_seq r1 + rec_count r1 <= dr_seq r2)%N.
Proof. intros R. eapply jsorted_pairs. apply (seq_ranges_increase n q0 x R). Qed.

(* while a leader carries a group: the sizes of the merged requests (in merge order: these are the
   members after the leader) plus the remaining limit are the initial limit of the code, so the group
   never exceeds it *)
Theorem merge_respects_limit n q0 x l wl c : reach n q0 x -> nth_error (ws (xb x)) l = Some wl ->
  gpc_of (pc wl) = Some c ->
  let g := getg (xd x) l in
  lbatches c = l :: map fst (gx_merged g) /\
  (sum_sizes (gx_merged g) + llim c = merge_limit mp (wsize wl) (lfree c))%N /\
  (sum_sizes (gx_merged g) <= lfree c - wsize wl)%N /\
  ((mergeThreshold mp <? wsize wl)%N = false -> (sum_sizes (gx_merged g) <= mergeSmallLimit mp)%N) /\
  ((mergeThreshold mp <? wsize wl)%N = true -> (wsize wl + sum_sizes (gx_merged g) <= N.max (wsize wl) (mergeBigLimit mp))%N).
Proof.
  intros R Hl Hc g. pose proof (xreachable_XI mp rq n q0 x R) as HX.
  pose proof (proj2 (xi_G _ _ _ HX) l wl c Hl Hc) as [G1 G2 G3 G4 G5 G6 G7 G8 G9].
  fold (getg (xd x) l) in *. fold g in G5, G6, G7.
  destruct (merge_limit_bounds mp (wsize wl) (lfree c)) as (B1 & B2 & B3).
  assert (Hl0 : exists t, lbatches c = l :: t).
  { pose proof (xi_P2 _ _ _ HX l wl Hl) as Hok. destruct (pc wl); simpl in Hc; try discriminate; inversion Hc; subst;
    simpl in Hok; try (match type of Hok with _ /\ _ => destruct Hok as [Hok _] end); eexists; exact Hok. }
  assert (Hhead : lbatches c = l :: map fst (gx_merged g)).
  { destruct G5 as [h G5]. destruct Hl0 as [t Hl0]. rewrite Hl0 in G5. inversion G5; subst. rewrite Hl0. reflexivity. }
  repeat split; auto; try lia.
  - intros Ht. specialize (B2 Ht). lia.
  - intros Ht. specialize (B3 Ht). lia.
Qed.

(* the request that did not fit is not dropped: it is the one — the only one — the lock is handed to *)
Theorem overflow_writer_gets_the_lock n q0 x l wl c k e o o' s' : reach n q0 x ->
  nth_error (ws (xb x)) l = Some wl -> pc wl = WLUnlock c k e -> lover c = Some o' ->
  step mp (xb x) (AHandover l o) = Some s' -> o = o'.
Proof.
  intros R Hl Hp Ho Hs. pose proof (xreachable_XI mp rq n q0 x R) as HX. pose proof (xi_inv _ _ _ HX) as Hv.
  assert (Hc : ctx_of (pc wl) = Some c) by (rewrite Hp; reflexivity).
  destruct (xi_O _ _ _ HX l wl c o' Hl Hc Ho) as (wo' & Hwo' & Hpo').
  unfold step, getw in Hs. rewrite Hl, Hp in Hs. destruct (nth_error (ws (xb x)) o) as [wo|] eqn:Eo; [|discriminate].
  destruct (pc wo) eqn:Epo; try discriminate.
  pose proof (holds_pc _ _ Hp eq_refl) as Hh.
  assert (Hr : replydue wl = 1) by (unfold replydue; rewrite Hp; simpl; unfold ctx_over; rewrite Ho; reflexivity).
  exact (two_waiting_same (xb x) l wl o o' wo wo' Hv Hl Hh Hr Eo Epo Hwo' Hpo').
Qed.

(* the decision itself: a request is merged iff it fits the remaining limit; otherwise the leader
   stops merging with overflow = that request (and its data is left alone) *)
Theorem merge_decision c x sz b :
  ((llim c <? sz)%N = true -> exists c', merge_decide c x sz b = WLJournal c' /\ lover c' = Some x /\ lbatches c' = lbatches c) /\
  ((llim c <? sz)%N = false -> exists c', merge_decide c x sz b = WLReply c' x /\ lbatches c' = lbatches c ++ [x] /\
                                           llim c' = (llim c - sz)%N).
Proof.
  unfold merge_decide. destruct (llim c <? sz)%N; split; intros H; try discriminate; eexists; repeat split.
Qed.

(* the step itself: nothing is inserted, the record is logged as failed, and the sequence numbers of
   the whole group are consumed (v_consume: db.addSeq is called after a failed writeJournal too) *)
Theorem journal_failure_step x l e x' : xstep mp v_real rq x (XA (AJournalFail l e)) = Some x' ->
  let g := getg (xd x) l in
  dmem (xd x') = dmem (xd x) /\
  dseq (xd x') = (dseq (xd x) + batches_len (gx_batches g))%N /\
  exists r, djl (xd x') = djl (xd x) ++ [r] /\ dr_ok r = false /\ dr_leader r = l /\
            dr_seq r = (dseq (xd x) + 1)%N /\ rec_count r = batches_len (gx_batches g) /\
            exists c, (exists wl, nth_error (ws (xb x)) l = Some wl /\ pc wl = WLJournal c) /\
                      (exists wl', nth_error (ws (xb x')) l = Some wl' /\ pc wl' = WLUnlock c 0 e) /\ e <> ROk.
Proof.
  intros H g. apply xstep_base in H. destruct H as (Hs & Hd & _). rewrite Hd. cbn [dstep dmem dseq djl v_real v_consume].
  repeat split. eexists. repeat split; cbn [dr_ok dr_leader dr_seq].
  - unfold rec_count. cbn [dr_segs]. symmetry. apply batches_len_concat.
  - unfold step, getw in Hs. destruct (nth_error (ws (xb x)) l) as [w|] eqn:E; [|discriminate].
    destruct (pc w) eqn:Ep; try discriminate.
    exists c. split; [eauto|]. destruct e; try discriminate; inversion Hs; subst; cbn [ws with_logs setw with_ws];
    (split; [eexists; split; [eapply nth_upd_same; eauto|reflexivity]|discriminate]).
Qed.

(* and afterwards: no member of a failed record ever holds a nil result, and none of its records is
   ever inserted into the memdb (members get the leader's error: C10_merged_result_is_groups of the base) *)
Theorem failed_group_not_acked n q0 x r i w : reach n q0 x -> In r (djl (xd x)) -> dr_ok r = false ->
  In i (rec_ids r) -> nth_error (ws (xb x)) i = Some w -> pc w <> WRet ROk /\ pc w <> WDone ROk.
Proof.
  intros R Hr Hok Hin Hi.
  assert (Hno : ~ (pc w = WRet ROk \/ pc w = WDone ROk)).
  { intros Hp. destruct (acked_request_is_journalled n q0 x i w R Hi Hp) as (r' & Hr' & Hok' & Hin').
    apply In_nth_error in Hr. destruct Hr as [k1 Hk1]. apply In_nth_error in Hr'. destruct Hr' as [k2 Hk2].
    pose proof (request_in_one_record n q0 x i k1 k2 r r' R Hk1 Hk2 Hin Hin'). subst k2.
    rewrite Hk1 in Hk2. inversion Hk2; subst. congruence. }
  split; intros Hp; apply Hno; auto.
Qed.

Lemma numbering_all_ids JL i : In i (map (fun t => fst (fst t)) (numbering_all JL)) ->
  exists r, In r JL /\ dr_ok r = true /\ In i (rec_ids r).
Proof.
  unfold numbering_all. rewrite concat_map, map_map. intros H. apply in_concat in H. destruct H as (l & Hl & Hi).
  apply in_map_iff in Hl. destruct Hl as (r & <- & Hr). apply filter_In in Hr. destruct Hr as [Hr Hok].
  exists r. repeat split; auto. unfold rec_numbering in Hi. rewrite put_batch_ids in Hi. exact Hi.
Qed.

Theorem failed_group_not_inserted n q0 x r i : reach n q0 x -> In r (djl (xd x)) -> dr_ok r = false ->
  In i (rec_ids r) -> ~ In i (map (fun t => fst (fst t)) (dmem (xd x))).
Proof.
  intros R Hr Hok Hin Hm. destruct (memdb_order_is_journal_order n q0 x R) as [(rest & Hrest) _].
  assert (Hm' : In i (map (fun t => fst (fst t)) (numbering_all (djl (xd x))))).
  { rewrite <- Hrest, map_app. apply in_or_app. auto. }
  destruct (numbering_all_ids _ _ Hm') as (r' & Hr' & Hok' & Hin').
  apply In_nth_error in Hr. destruct Hr as [k1 Hk1]. apply In_nth_error in Hr'. destruct Hr' as [k2 Hk2].
  pose proof (request_in_one_record n q0 x i k1 k2 r r' R Hk1 Hk2 Hin Hin'). subst k2.
  rewrite Hk1 in Hk2. inversion Hk2; subst. congruence.
Qed.

End Theorems.
