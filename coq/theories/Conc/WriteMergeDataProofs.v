(* Conc/WriteMergeDataProofs.v — proofs about the data layer of the writer serialisation and merge
   protocol (Conc/WriteMergeData.v), for any number of writers, any request table, any merge-limit
   constants and every interleaving: invariant induction over [xstep], using the invariants of the
   base system (Conc/WriteMergeProofs.v: lock ownership, reply/acknowledgement counts, group
   composition). *)
From Coq Require Import List NArith Bool Arith Lia Permutation.
From GL Require Import Conc.WriteMerge Conc.WriteMergeProofs Conc.WriteMergeData.
From GL Require Mem.ListLemmas.
Import ListNotations.

Lemma seg_len_app a b : seg_len (a ++ b) = (seg_len a + seg_len b)%N.
Proof. induction a as [|x a IH]; simpl; [reflexivity|]. rewrite IH. lia. Qed.

Lemma batches_len_concat bs : batches_len bs = seg_len (concat bs).
Proof. induction bs as [|b bs IH]; simpl; [reflexivity|]. rewrite seg_len_app, IH. reflexivity. Qed.

Lemma put_batch_app b : forall q b', put_batch q (b ++ b') = put_batch q b ++ put_batch (q + seg_len b) b'.
Proof.
  induction b as [|[i n] b IH]; intros q b'; simpl.
  - rewrite N.add_0_r. reflexivity.
  - rewrite IH. f_equal. f_equal. f_equal. lia.
Qed.

(* the putMem loop (per batch, seq += Len) numbers the records exactly as a reader of the journal
   record does (header seq, then consecutively in file order) *)
Lemma put_all_concat bs : forall q, put_all q bs = put_batch q (concat bs).
Proof.
  induction bs as [|b bs IH]; intros q; simpl; [reflexivity|]. rewrite put_batch_app, IH. reflexivity.
Qed.

Lemma put_batch_ids b : forall q, map (fun t => fst (fst t)) (put_batch q b) = seg_ids b.
Proof. induction b as [|[i n] b IH]; intros q; simpl; [reflexivity|]. rewrite IH. reflexivity. Qed.

(* consecutive: every run starts where the previous one ended *)
Fixpoint consecutive (q : N) (l : list (nat * N * N)) : Prop :=
  match l with
  | [] => True
  | (_, q', n) :: r => q' = q /\ consecutive (q + n) r
  end.

Lemma put_batch_consecutive b : forall q, consecutive q (put_batch q b).
Proof. induction b as [|[i n] b IH]; intros q; simpl; auto. Qed.

Lemma seg_ids_app a b : seg_ids (a ++ b) = seg_ids a ++ seg_ids b.
Proof. apply map_app. Qed.

Lemma filter_perm {A} (p : A -> bool) l : Permutation l (filter p l ++ filter (fun x => negb (p x)) l).
Proof.
  induction l as [|x l IH]; simpl; [constructor|].
  destruct (p x); simpl.
  - constructor. exact IH.
  - eapply perm_trans; [constructor; exact IH|]. apply Permutation_middle.
Qed.

Lemma filters_perm {A} (p : A -> bool) l1 l2 :
  filter p l1 = filter p l2 -> filter (fun x => negb (p x)) l1 = filter (fun x => negb (p x)) l2 -> Permutation l1 l2.
Proof.
  intros H1 H2. eapply perm_trans; [apply (filter_perm p)|]. rewrite H1, H2. apply Permutation_sym, filter_perm.
Qed.

Lemma existsb_perm {A} (f : A -> bool) l1 l2 : Permutation l1 l2 -> existsb f l1 = existsb f l2.
Proof.
  induction 1; simpl; auto.
  - rewrite IHPermutation. reflexivity.
  - destruct (f x), (f y); reflexivity.
  - congruence.
Qed.

Section Proj.
Variable mp : mparams.
Variable v : dvariant.
Variable rq : reqtab.

Lemma xstep_base x a x' : xstep mp v rq x (XA a) = Some x' ->
  step mp (xb x) a = Some (xb x') /\ xd x' = dstep mp v rq (xb x) (xd x) a /\ call_ok rq a = true.
Proof.
  unfold xstep. destruct (call_ok rq a); [|discriminate]. destruct (step mp (xb x) a) eqn:E; [|discriminate].
  intros H; inversion H; subst; simpl; auto.
Qed.

Lemma xstep_txn x q x' : xstep mp v rq x (XTxnSeq q) = Some x' ->
  xb x' = xb x /\ dgs (xd x') = dgs (xd x) /\ djl (xd x') = djl (xd x) /\ dmem (xd x') = dmem (xd x) /\
  dseq (xd x') = q /\ (dseq (xd x) <= q)%N /\ 0 < topen (xb x).
Proof.
  unfold xstep. destruct (topen (xb x)) eqn:Et; [discriminate|]. destruct (dseq (xd x) <=? q)%N eqn:El; [|discriminate].
  intros H; inversion H; subst; simpl. apply N.leb_le in El. repeat split; auto. lia.
Qed.

Lemma xrun_base l : forall x x', xrun mp v rq x l = Some x' -> run mp (xb x) (base_actions l) = Some (xb x').
Proof.
  induction l as [|a l IH]; simpl; intros x x' H.
  - inversion H; subst; reflexivity.
  - destruct (xstep mp v rq x a) as [x1|] eqn:E; [|discriminate]. destruct a as [a|q].
    + apply xstep_base in E. destruct E as [E _]. simpl. rewrite E. apply IH; auto.
    + apply xstep_txn in E. destruct E as [E _]. rewrite <- E. apply IH; auto.
Qed.

Definition xreachable (n : nat) (q0 : N) (x : xstate) : Prop := exists l, xrun mp v rq (xinit n q0) l = Some x.

Lemma xreachable_base n q0 x : xreachable n q0 x -> reachable mp n (xb x).
Proof. intros [l H]. exists (base_actions l). apply xrun_base in H. exact H. Qed.

Lemma xrun_app l1 : forall x l2, xrun mp v rq x (l1 ++ l2) =
  match xrun mp v rq x l1 with Some x1 => xrun mp v rq x1 l2 | None => None end.
Proof. induction l1; simpl; intros; auto. destruct (xstep mp v rq x a); auto. Qed.

Lemma xreachable_step n q0 x a x' : xreachable n q0 x -> xstep mp v rq x a = Some x' -> xreachable n q0 x'.
Proof. intros [l H] Hs. exists (l ++ [a]). rewrite xrun_app, H. simpl. rewrite Hs. reflexivity. Qed.

End Proj.

Lemma nth_upd2_inv {A} (L : list A) i l xi xl j w :
  nth_error (upd (upd L i xi) l xl) j = Some w ->
  (j = l /\ w = xl) \/ (j <> l /\ j = i /\ w = xi) \/ (j <> l /\ j <> i /\ nth_error L j = Some w).
Proof.
  intros H. apply nth_upd_inv in H. destruct H as [[-> ->]|[Hn H]]; auto.
  apply nth_upd_inv in H. destruct H as [[-> ->]|[Hn' H]]; auto.
Qed.

Lemma nth_upd2_l {A} (L : list A) i l xi xl wl : i <> l -> nth_error L l = Some wl ->
  nth_error (upd (upd L i xi) l xl) l = Some xl.
Proof. intros Hn Hl. apply (nth_upd_same _ _ _ wl). rewrite nth_upd_other; auto. Qed.

Lemma nth_upd2_i {A} (L : list A) i l xi xl wi : i <> l -> nth_error L i = Some wi ->
  nth_error (upd (upd L i xi) l xl) i = Some xi.
Proof. intros Hn Hi. rewrite nth_upd_other; auto. apply (nth_upd_same _ _ _ wi); auto. Qed.

Lemma nth_upd2_other {A} (L : list A) i l xi xl j : j <> i -> j <> l ->
  nth_error (upd (upd L i xi) l xl) j = nth_error L j.
Proof. intros H1 H2. rewrite nth_upd_other; auto. rewrite nth_upd_other; auto. Qed.

Lemma nth_upd_some {A} (L : list A) i x j w : nth_error L j = Some w ->
  exists w', nth_error (upd L i x) j = Some w' /\ (j = i /\ w' = x \/ j <> i /\ w' = w).
Proof.
  intros H. destruct (Nat.eq_dec j i) as [->|Hn].
  - exists x. split; auto. apply (nth_upd_same _ _ _ w); auto.
  - exists w. split; auto. rewrite nth_upd_other; auto.
Qed.

Definition ctx_of (p : wpc) : option lctx :=
  match p with
  | WLMerge c | WLReply c _ | WLJournal c | WLApply c | WLPublish c | WLRotate c | WLUnlock c _ _ => Some c
  | _ => None
  end.

Lemma ctx_holds p c : ctx_of p = Some c -> holdsp p = 1.
Proof. destruct p; simpl; intros H; try discriminate; reflexivity. Qed.

Lemma other_no_ctx s l wl : inv s -> nth_error (ws s) l = Some wl -> holds wl = 1 ->
  forall j w, j <> l -> nth_error (ws s) j = Some w -> ctx_of (pc w) = None.
Proof.
  intros Hv Hl Hh j w Hn Hj. destruct (only_leader s l wl Hv Hl Hh) as [Ho _].
  specialize (Ho j w Hn Hj). unfold holds in Ho. destruct (ctx_of (pc w)) eqn:E; auto.
  apply ctx_holds in E. lia.
Qed.

(* who waits for an acknowledgement is in the leader's group *)
Definition Minv (L : list writer) : Prop := forall i w, nth_error L i = Some w -> pc w = WWaitAck ->
  exists l wl c, nth_error L l = Some wl /\ ctx_of (pc wl) = Some c /\ In i (lbatches c).

Lemma Minv_upd1 L i w w' : Minv L -> nth_error L i = Some w -> pc w' <> WWaitAck ->
  (forall c, ctx_of (pc w) = Some c -> exists c', ctx_of (pc w') = Some c' /\ incl (lbatches c) (lbatches c')) ->
  Minv (upd L i w').
Proof.
  intros HM Hi Hp Hc j wj Hj Hpj. apply nth_upd_inv in Hj. destruct Hj as [[-> ->]|[Hn Hj]]; [contradiction|].
  destruct (HM j wj Hj Hpj) as (l & wl & c & Hl & Hcl & Hin).
  destruct (Nat.eq_dec l i) as [->|Hnl].
  - rewrite Hi in Hl. inversion Hl; subst wl. destruct (Hc c Hcl) as (c' & Hc' & Hincl).
    exists i, w', c'. split; [apply (nth_upd_same _ _ _ w); auto|]. split; auto.
  - exists l, wl, c. split; auto. rewrite nth_upd_other; auto.
Qed.

Lemma no_waitack_Minv L : (forall j w, nth_error L j = Some w -> pc w <> WWaitAck) -> Minv L.
Proof. intros H i w Hi Hp. exfalso. apply (H i w Hi Hp). Qed.

Section MO.
Variable mp : mparams.

Lemma unlock_end_no_waitack s l wl c k e : inv s -> nth_error (ws s) l = Some wl -> pc wl = WLUnlock c k e ->
  (k <? lmerged c) = false -> forall j w, nth_error (ws s) j = Some w -> pc w <> WWaitAck.
Proof.
  intros Hv Hl Hp Hk. apply no_waitack.
  pose proof (holds_pc _ _ Hp eq_refl) as Hh.
  destruct (leader_sums s l wl Hv Hl Hh) as [_ Ha]. rewrite Ha. unfold ackdue. rewrite Hp. simpl.
  apply Nat.ltb_ge in Hk. lia.
Qed.

Lemma M_reply s i l wi wl c x wi' : inv s -> P2 (ws s) -> Minv (ws s) ->
  nth_error (ws s) l = Some wl -> nth_error (ws s) i = Some wi -> pc wl = WLReply c x -> pc wi = WWaitMerged ->
  Minv (upd (upd (ws s) i wi') l (set_pc wl (WLMerge (after_reply c i)))).
Proof.
  intros Hv HP HM E E0 E1 E2.
  assert (Hn : i <> l) by (apply (pcs_differ _ _ _ _ _ E0 E); congruence).
  assert (Hix : i = x) by exact (P2_reply_is_x s l wl c x i wi Hv HP E E1 E0 E2). subst x.
  pose proof (HP l wl E) as Hok. rewrite E1 in Hok. simpl in Hok. destruct Hok as [Hb _].
  pose proof (holds_pc _ _ E1 eq_refl) as Hh.
  intros j wj Hj Hpj.
  exists l, (set_pc wl (WLMerge (after_reply c i))), (after_reply c i). split; [eapply nth_upd2_l; eauto|].
  split; [reflexivity|]. cbn [lbatches after_reply].
  apply nth_upd2_inv in Hj. destruct Hj as [[-> ->]|[(Hjl & -> & ->)|(Hjl & Hji & Hj)]].
  - cbn [pc set_pc] in Hpj. discriminate.
  - rewrite Hb. right. apply in_or_app. right. left. reflexivity.
  - destruct (HM j wj Hj Hpj) as (l0 & wl0 & c0 & Hl0 & Hc0 & Hin).
    destruct (same_leader s l wl l0 wl0 Hv E Hh Hl0) as [-> ->]. { unfold holds. eapply ctx_holds; eauto. }
    rewrite E1 in Hc0. simpl in Hc0. inversion Hc0; subst c0. exact Hin.
Qed.

Lemma M_handover s l o wl wo c k e p : inv s ->
  nth_error (ws s) l = Some wl -> pc wl = WLUnlock c k e -> (k <? lmerged c) = false -> p <> WWaitAck ->
  Minv (upd (upd (ws s) o (set_pc wo p)) l (set_pc wl (WRet e))).
Proof.
  intros Hv E E1 Hk Hp. apply no_waitack_Minv. intros j wj Hj. apply nth_upd2_inv in Hj.
  destruct Hj as [[-> ->]|[(Hjl & -> & ->)|(Hjl & Hji & Hj)]]; cbn [pc set_pc]; try discriminate; auto.
  exact (unlock_end_no_waitack s l wl c k e Hv E E1 Hk j wj Hj).
Qed.

Lemma M_release s l wl c k e : inv s ->
  nth_error (ws s) l = Some wl -> pc wl = WLUnlock c k e -> (k <? lmerged c) = false ->
  Minv (upd (ws s) l (set_pc wl (WRet e))).
Proof.
  intros Hv E E1 Hk. apply no_waitack_Minv. intros j wj Hj. apply nth_upd_inv in Hj.
  destruct Hj as [[-> ->]|[Hjl Hj]]; cbn [pc set_pc]; try discriminate.
  exact (unlock_end_no_waitack s l wl c k e Hv E E1 Hk j wj Hj).
Qed.

Lemma step_M s a s' : inv s -> P2 (ws s) -> Minv (ws s) -> step mp s a = Some s' -> Minv (ws s').
Proof.
  intros Hv HP HM H.
  destruct (step_shape _ _ _ _ H) as [He | i w w' t Hi Hm -> | i l w wl w' wl' t Hn Hi Hl Hm ->]; cbn [ws with_ws].
  - destruct He; exact HM.
  - destruct Hm;
      (* the moving writer does not come to wait for an acknowledgement, and a leader keeps its batches *)
      try (apply (Minv_upd1 _ _ _ _ HM Hi); rewrite ?Hp; cbn [pc set_pc ctx_of];
           [ split_if; discriminate
           | first [ intros ? Hx; discriminate Hx
                   | intros c0 Hc0; inversion Hc0; subst c0; eexists; (split; [reflexivity|apply incl_refl]) ] ]).
    eapply M_release; eassumption.
  - assert (El : nth_error (upd (ws s) i w') l = Some wl) by (rewrite nth_upd_other by exact Hn; exact Hl).
    destruct Hm.
    + (* ASelMerge *)
      assert (HM1 : Minv (upd (ws s) i (set_pc w WWaitMerged)))
        by (apply (Minv_upd1 _ _ _ _ HM Hi); [discriminate | rewrite Hp; intros ? Hx; discriminate Hx]).
      apply (Minv_upd1 _ _ _ _ HM1 El); [unfold merge_decide; split_if; discriminate|].
      rewrite Hpl. cbn [ctx_of pc set_pc]. intros c0 Hc0. inversion Hc0; subst c0. unfold merge_decide. split_if;
        cbn [ctx_of]; eexists; (split; [reflexivity|]); cbn [lbatches]; [apply incl_refl | apply incl_appl, incl_refl].
    + eapply M_reply; eassumption.
    + (* AAck *)
      assert (HM1 : Minv (upd (ws s) i (set_pc w (WRet e))))
        by (apply (Minv_upd1 _ _ _ _ HM Hi); [discriminate | rewrite Hp; intros ? Hx; discriminate Hx]).
      apply (Minv_upd1 _ _ _ _ HM1 El); [discriminate|].
      rewrite Hpl. cbn [ctx_of pc set_pc]. intros c0 Hc0. inversion Hc0; subst c0. eexists; split; [reflexivity|apply incl_refl].
    + eapply M_handover; try eassumption. discriminate.
Qed.

(* the request that did not fit is waiting for its reply *)
Definition Oinv (L : list writer) : Prop := forall l wl c x, nth_error L l = Some wl -> ctx_of (pc wl) = Some c ->
  lover c = Some x -> exists wx, nth_error L x = Some wx /\ pc wx = WWaitMerged.

Lemma Oinv_upd L i w w' : Oinv L -> nth_error L i = Some w -> (pc w = WWaitMerged -> pc w' = WWaitMerged) ->
  (forall c' x, ctx_of (pc w') = Some c' -> lover c' = Some x ->
     exists wx, nth_error (upd L i w') x = Some wx /\ pc wx = WWaitMerged) ->
  Oinv (upd L i w').
Proof.
  intros HO Hi H1 H2 l wl c x Hl Hc Hx. apply nth_upd_inv in Hl. destruct Hl as [[-> ->]|[Hn Hl]].
  - eapply H2; eauto.
  - destruct (HO l wl c x Hl Hc Hx) as (wx & Hwx & Hpx).
    destruct (nth_upd_some L i w' x wx Hwx) as (wx' & Hx' & [[-> ->]|[Hne ->]]).
    + exists w'. split; auto. apply H1. rewrite Hi in Hwx. inversion Hwx; subst; auto.
    + exists wx. split; auto.
Qed.

Lemma O_keep L i w w' c x : Oinv L -> nth_error L i = Some w -> ctx_of (pc w) = Some c -> lover c = Some x ->
  exists wx, nth_error (upd L i w') x = Some wx /\ pc wx = WWaitMerged.
Proof.
  intros HO Hi Hc Hx. destruct (HO i w c x Hi Hc Hx) as (wx & Hwx & Hpx).
  destruct (nth_upd_some L i w' x wx Hwx) as (wx' & Hx' & [[-> ->]|[Hne ->]]).
  - rewrite Hi in Hwx. inversion Hwx; subst. rewrite Hpx in Hc. discriminate.
  - exists wx. auto.
Qed.

Lemma O_vacuous L : (forall j w c x, nth_error L j = Some w -> ctx_of (pc w) = Some c -> lover c = Some x -> False) -> Oinv L.
Proof. intros H l wl c x Hl Hc Hx. exfalso. eapply H; eauto. Qed.

Lemma O_reply s i l wi wl c x wi' : inv s ->
  nth_error (ws s) l = Some wl -> nth_error (ws s) i = Some wi -> pc wl = WLReply c x -> pc wi = WWaitMerged -> pc wi' = WWaitAck ->
  Oinv (upd (upd (ws s) i wi') l (set_pc wl (WLMerge (after_reply c i)))).
Proof.
  intros Hv E E0 E1 E2 E3.
  pose proof (holds_pc _ _ E1 eq_refl) as Hh.
  pose proof (Forall_nth _ _ _ _ (inv_wf s Hv) E) as Hw. unfold wf_writer in Hw. rewrite E1 in Hw. simpl in Hw. destruct Hw as [Ho _].
  apply O_vacuous. intros j w0 c0 x0 Hj Hc Hx. apply nth_upd2_inv in Hj.
  destruct Hj as [[-> ->]|[(Hjl & -> & ->)|(Hjl & Hji & Hj)]].
  - cbn [pc set_pc ctx_of] in Hc. inversion Hc; subst c0. cbn [lover after_reply] in Hx. congruence.
  - rewrite E3 in Hc. discriminate.
  - rewrite (other_no_ctx s l wl Hv E Hh j w0 Hjl Hj) in Hc. discriminate.
Qed.

Lemma O_handover s l o wl wo c k e : inv s ->
  nth_error (ws s) l = Some wl -> nth_error (ws s) o = Some wo -> pc wl = WLUnlock c k e ->
  Oinv (upd (upd (ws s) o (set_pc wo WLFlush)) l (set_pc wl (WRet e))).
Proof.
  intros Hv E E0 E1.
  pose proof (holds_pc _ _ E1 eq_refl) as Hh.
  apply O_vacuous. intros j w0 c0 x0 Hj Hc Hx. apply nth_upd2_inv in Hj.
  destruct Hj as [[-> ->]|[(Hjl & -> & ->)|(Hjl & Hji & Hj)]]; cbn [pc set_pc ctx_of] in Hc; try discriminate.
  rewrite (other_no_ctx s l wl Hv E Hh j w0 Hjl Hj) in Hc. discriminate.
Qed.

Lemma step_O s a s' : inv s -> Oinv (ws s) -> step mp s a = Some s' -> Oinv (ws s').
Proof.
  intros Hv HO H.
  destruct (step_shape _ _ _ _ H) as [He | i w w' t Hi Hm -> | i l w wl w' wl' t Hn Hi Hl Hm ->]; cbn [ws with_ws].
  - destruct He; exact HO.
  - destruct Hm; apply (Oinv_upd _ _ _ _ HO Hi); rewrite ?Hp; cbn [pc set_pc]; try discriminate; split_if; cbn [ctx_of];
      first [ intros ? ? Hx; discriminate Hx
            | intros c' x Hc Hx; inversion Hc; subst c';
              first [ discriminate Hx | apply (O_keep _ _ _ _ c x HO Hi); [rewrite Hp; reflexivity | exact Hx] ] ].
  - assert (El : nth_error (upd (ws s) i w') l = Some wl) by (rewrite nth_upd_other by exact Hn; exact Hl).
    destruct Hm.
    + (* ASelMerge: a request that does not fit waits for its reply *)
      assert (HO1 : Oinv (upd (ws s) i (set_pc w WWaitMerged)))
        by (apply (Oinv_upd _ _ _ _ HO Hi); [rewrite Hp; discriminate | intros ? ? Hx; discriminate Hx]).
      apply (Oinv_upd _ _ _ _ HO1 El); [rewrite Hpl; discriminate|].
      cbn [pc set_pc]. unfold merge_decide. intros c' x Hc Hx.
      destruct (llim c <? wsize w)%N; cbn [ctx_of] in Hc; inversion Hc; subst c'; cbn [lover] in Hx; [|discriminate Hx].
      inversion Hx; subst x. exists (set_pc w WWaitMerged). split; [|reflexivity]. exact (nth_upd2_i _ _ _ _ _ _ Hn Hi).
    + eapply O_reply; try eassumption. reflexivity.
    + (* AAck *)
      assert (HO1 : Oinv (upd (ws s) i (set_pc w (WRet e))))
        by (apply (Oinv_upd _ _ _ _ HO Hi); [rewrite Hp; discriminate | intros ? ? Hx; discriminate Hx]).
      apply (Oinv_upd _ _ _ _ HO1 El); [rewrite Hpl; discriminate|].
      cbn [pc set_pc ctx_of]. intros c' x Hc Hx. inversion Hc; subst c'.
      apply (O_keep _ _ _ _ c x HO1 El); [rewrite Hpl; reflexivity | exact Hx].
    + eapply O_handover; eassumption.
Qed.

End MO.

Lemma sum_sizes_app a b : sum_sizes (a ++ b) = (sum_sizes a + sum_sizes b)%N.
Proof. induction a as [|x a IH]; simpl; [reflexivity|]. rewrite IH. lia. Qed.

(* [held H L P Q]: a writer whose state H selects satisfies P; if there is none, Q *)
Definition held (H : wpc -> bool) (L : list writer) (P : nat -> Prop) (Q : Prop) : Prop :=
  (forall l wl, nth_error L l = Some wl -> H (pc wl) = true -> P l) /\
  ((forall l wl, nth_error L l = Some wl -> H (pc wl) = false) -> Q).

Lemma held_upd1 H L i w w' (P P' : nat -> Prop) (Q Q' : Prop) : held H L P Q -> nth_error L i = Some w ->
  H (pc w) = false -> H (pc w') = false ->
  (forall l wl, l <> i -> nth_error L l = Some wl -> H (pc wl) = true -> P l -> P' l) -> (Q -> Q') ->
  held H (upd L i w') P' Q'.
Proof.
  intros [A1 A2] Hi Hw Hw' HP HQ. split.
  - intros l wl Hl Hp. apply nth_upd_inv in Hl. destruct Hl as [[-> ->]|[Hn Hl]]; [congruence|].
    exact (HP l wl Hn Hl Hp (A1 l wl Hl Hp)).
  - intros Hall. apply HQ, A2. intros l wl Hl. destruct (Nat.eq_dec l i) as [->|Hn].
    + rewrite Hi in Hl. inversion Hl; subst. exact Hw.
    + apply (Hall l wl). rewrite nth_upd_other; auto.
Qed.

Section Leader.
Variables (H : wpc -> bool) (s : state) (l : nat) (wl : writer) (P : nat -> Prop) (Q : Prop).
Hypotheses (HH : forall p, H p = true -> holdsp p = 1) (Hv : inv s) (Hl : nth_error (ws s) l = Some wl)
  (Hh : holds wl = 1) (HA : held H (ws s) P Q).

Lemma held_others j w : j <> l -> nth_error (ws s) j = Some w -> H (pc w) = false.
Proof.
  intros Hn Hj. destruct (only_leader s l wl Hv Hl Hh) as [Ho _]. specialize (Ho j w Hn Hj).
  destruct (H (pc w)) eqn:E; auto. apply HH in E. unfold holds in Ho. lia.
Qed.

(* when H selects only owners of the lock, what is held is held of the owner, or of nobody *)
Lemma held_now : if H (pc wl) then P l else Q.
Proof.
  destruct HA as [A1 A2]. destruct (H (pc wl)) eqn:E; [exact (A1 l wl Hl E)|]. apply A2. intros j w Hj.
  destruct (Nat.eq_dec j l) as [->|Hn]; [rewrite Hl in Hj; inversion Hj; subst; exact E | exact (held_others j w Hn Hj)].
Qed.

Lemma held_leader w' (P' : nat -> Prop) (Q' : Prop) :
  ((if H (pc wl) then P l else Q) -> (if H (pc w') then P' l else Q')) -> held H (upd (ws s) l w') P' Q'.
Proof.
  intros Hmove. specialize (Hmove held_now). split.
  - intros j w Hj Hp. apply nth_upd_inv in Hj. destruct Hj as [[-> ->]|[Hn Hj]].
    + rewrite Hp in Hmove. exact Hmove.
    + rewrite (held_others j w Hn Hj) in Hp. discriminate.
  - intros Hall. rewrite (Hall l w' (nth_upd_same _ _ _ _ Hl)) in Hmove. exact Hmove.
Qed.
End Leader.

Section Data.
Variable mp : mparams.
Variable rq : reqtab.

Definition putid (i : nat) : bool := req_put (rq i).
Definition nputid (i : nat) : bool := negb (putid i).
Definition gids (g : gctx) : list nat := seg_ids (concat (gx_batches g)).

(* ourBatch holds the merged Put/Delete records (and the leader's own record when it came through
   putRec) and nothing else; no other batch holds any *)
Definition our_bs (bs : list dbatch) (o : option nat) : Prop :=
  match o with
  | None => forall j b, nth_error bs j = Some b -> Forall (fun sg => putid (fst sg) = false) b
  | Some k => k < length bs /\
              forall j b, nth_error bs j = Some b -> Forall (fun sg => putid (fst sg) = Nat.eqb j k) b
  end.

Lemma noput1 (b : list seg) : Forall (fun sg : seg => putid (fst sg) = false) b ->
  filter putid (seg_ids b) = [] /\ filter nputid (seg_ids b) = seg_ids b.
Proof.
  induction 1 as [|sg b Hsg Hb [I1 I2]]; simpl; auto. unfold nputid at 1. rewrite Hsg. simpl. rewrite I1, I2. auto.
Qed.

Lemma noput_filter bs : (forall j b, nth_error bs j = Some b -> Forall (fun sg : seg => putid (fst sg) = false) b) ->
  filter putid (seg_ids (concat bs)) = [] /\ filter nputid (seg_ids (concat bs)) = seg_ids (concat bs).
Proof.
  induction bs as [|b bs IH]; intros H; simpl; auto.
  destruct IH as [IH1 IH2]. { intros j b' Hj. apply (H (S j) b' Hj). }
  destruct (noput1 b (H 0 b eq_refl)) as [B1 B2]. rewrite seg_ids_app, !filter_app, IH1, IH2, B1, B2. auto.
Qed.

Lemma allput_filter (b : list seg) : Forall (fun sg => putid (fst sg) = true) b ->
  filter putid (seg_ids b) = seg_ids b /\ filter nputid (seg_ids b) = [].
Proof.
  induction 1 as [|sg b Hsg Hb [I1 I2]]; simpl; auto. unfold nputid at 1. rewrite Hsg. simpl. rewrite I1, I2. auto.
Qed.

Lemma app_at_length bs : forall k x, length (app_at bs k x) = length bs.
Proof. induction bs; intros k x; destruct k; simpl; auto. Qed.

Lemma app_at_forall (P : seg -> Prop) bs : forall k x, Forall P (concat bs) -> P x -> Forall P (concat (app_at bs k x)).
Proof.
  induction bs as [|b bs IH]; intros k x H Hx; destruct k; simpl in *; auto.
  - apply Forall_app in H. destruct H. apply Forall_app; split; auto. apply Forall_app; split; auto.
  - apply Forall_app in H. destruct H. apply Forall_app; split; auto.
Qed.

Lemma app_at_put bs i n : putid i = true -> forall k, k < length bs ->
  (forall j b, nth_error bs j = Some b -> Forall (fun sg : seg => putid (fst sg) = Nat.eqb j k) b) ->
  filter putid (seg_ids (concat (app_at bs k (i, n)))) = filter putid (seg_ids (concat bs)) ++ [i] /\
  filter nputid (seg_ids (concat (app_at bs k (i, n)))) = filter nputid (seg_ids (concat bs)) /\
  (forall j b, nth_error (app_at bs k (i, n)) j = Some b -> Forall (fun sg : seg => putid (fst sg) = Nat.eqb j k) b).
Proof.
  intros Hi. induction bs as [|b bs IH]; intros k Hk H; simpl in Hk; [lia|].
  destruct k as [|k]; simpl.
  - assert (Hb : Forall (fun sg : seg => putid (fst sg) = true) b) by apply (H 0 b eq_refl).
    assert (Hr : forall j b', nth_error bs j = Some b' -> Forall (fun sg : seg => putid (fst sg) = false) b').
    { intros j b' Hj. apply (H (S j) b' Hj). }
    destruct (noput_filter bs Hr) as [R1 R2]. destruct (allput_filter b Hb) as [B1 B2].
    rewrite !seg_ids_app, !filter_app, R1, R2, B1, B2. simpl. unfold nputid at 1. rewrite Hi. simpl.
    rewrite !app_nil_r. repeat split; auto.
    intros j b' Hj. destruct j; simpl in Hj.
    + inversion Hj; subst. apply Forall_app; split; auto.
    + apply (H (S j) b' Hj).
  - assert (Hb : Forall (fun sg : seg => putid (fst sg) = false) b) by apply (H 0 b eq_refl).
    destruct (IH k) as (I1 & I2 & I3); [lia| |].
    { intros j b' Hj. apply (H (S j) b' Hj). }
    rewrite !seg_ids_app, !filter_app, I1, I2. rewrite app_assoc. repeat split; auto.
    intros j b' Hj. destruct j; simpl in Hj.
    + inversion Hj; subst. exact Hb.
    + apply (I3 j b' Hj).
Qed.

Definition gpc_of (p : wpc) : option lctx :=
  match p with
  | WLMerge c | WLReply c _ | WLJournal c | WLApply c | WLPublish c => Some c
  | _ => None
  end.

(* [gok wl c g]: the data-layer context g of leader wl describes the same group as its base context c —
   the same requests (Put/Delete and Write(batch) requests each in the base order), ourBatch, sync = OR of
   the members' flags, and the limit bookkeeping of the code *)
Record gok (wl : writer) (c : lctx) (g : gctx) : Prop := {
  gk_put : filter putid (gids g) = filter putid (lbatches c);
  gk_bat : filter nputid (gids g) = filter nputid (lbatches c);
  gk_our : our_bs (gx_batches g) (gx_our g);
  gk_sync : gx_sync g = existsb (fun i => rq_sync (rq i)) (lbatches c);
  gk_merged : exists h, lbatches c = h :: map fst (gx_merged g);
  gk_lim : (sum_sizes (gx_merged g) + llim c)%N = gx_lim0 g;
  gk_lim0 : gx_lim0 g = merge_limit mp (wsize wl) (lfree c);
  gk_nrec : Forall (fun sg : seg => snd sg = req_nrec (rq (fst sg))) (concat (gx_batches g));
  gk_hd : exists h n b bs t, gx_batches g = ((h, n) :: b) :: bs /\ lbatches c = h :: t
}.

Definition Ginv (L : list writer) (G : list gctx) : Prop :=
  length G = length L /\
  forall l wl c, nth_error L l = Some wl -> gpc_of (pc wl) = Some c -> gok wl c (nth l G g0).

Lemma G_upd L G i w w' g' : Ginv L G -> nth_error L i = Some w ->
  (forall c, gpc_of (pc w') = Some c -> gok w' c g') -> Ginv (upd L i w') (upd G i g').
Proof.
  intros [Hlen HG] Hi Hc. split; [rewrite !upd_length; auto|].
  intros l wl c Hl Hp. apply nth_upd_inv in Hl. destruct Hl as [[-> ->]|[Hn Hl]].
  - rewrite nth_upd_same_d; auto. rewrite Hlen. eapply ListLemmas.nth_error_Some_lt; eauto.
  - rewrite nth_upd_other_d; auto.
Qed.

Lemma G_upd_same L G i w w' : Ginv L G -> nth_error L i = Some w ->
  (forall c, gpc_of (pc w') = Some c -> gok w' c (nth i G g0)) -> Ginv (upd L i w') G.
Proof.
  intros [Hlen HG] Hi Hc. split; [rewrite !upd_length; auto|].
  intros l wl c Hl Hp. apply nth_upd_inv in Hl. destruct Hl as [[-> ->]|[Hn Hl]]; auto.
Qed.

(* a move of the leader that keeps its group: same batches, limit, free space and own size *)
Lemma gok_keep wl wl' c c' g : gok wl c g -> lbatches c' = lbatches c -> llim c' = llim c -> lfree c' = lfree c ->
  wsize wl' = wsize wl -> gok wl' c' g.
Proof.
  intros [H1 H2 H3 H4 H5 H6 H7 H8 H9] Hb Hl Hf Hs. constructor; rewrite ?Hb, ?Hl, ?Hf, ?Hs; auto.
Qed.

Lemma gok_set_seq wl c g q : gok wl c g -> gok wl c (set_seq g q).
Proof. intros [H1 H2 H3 H4 H5 H6 H7 H8 H9]. constructor; auto. Qed.

Lemma gok_init l w free c : lbatches c = [l] -> llim c = merge_limit mp (wsize w) free -> lfree c = free ->
  gok w c (lead_init mp rq l (wsize w) free).
Proof.
  intros Hb Hl Hf. unfold lead_init. constructor; unfold gids; cbn [gx_batches gx_our gx_sync gx_merged gx_lim0 concat app seg_ids map fst]; rewrite ?Hb.
  - reflexivity.
  - reflexivity.
  - fold (putid l). destruct (putid l) eqn:Ep; cbn [our_bs length].
    + split; [lia|]. intros j b Hj. destruct j; simpl in Hj; [|destruct j; discriminate]. inversion Hj; subst.
      constructor; auto.
    + intros j b Hj. destruct j; simpl in Hj; [|destruct j; discriminate]. inversion Hj; subst. constructor; auto.
  - simpl. rewrite orb_false_r. reflexivity.
  - exists l. reflexivity.
  - simpl. rewrite Hl. reflexivity.
  - rewrite Hf. reflexivity.
  - constructor; auto.
  - exists l, (req_nrec (rq l)), [], [], []. auto.
Qed.

(* a fresh batch for a merged request: it becomes ourBatch if it is the first merged Put/Delete *)
Lemma our_bs_snoc bs o o' i n : our_bs bs o -> o' = (if putid i then Some (length bs) else o) ->
  (putid i = true -> o = None) -> our_bs (bs ++ [[(i, n)]]) o'.
Proof.
  intros H -> Ho. destruct (putid i) eqn:Ep.
  - rewrite (Ho eq_refl) in H. cbn [our_bs] in *. rewrite app_length. split; [simpl; lia|]. intros j b Hj.
    destruct (ListLemmas.nth_snoc _ _ _ _ Hj) as [[Hlt Hb]|[-> ->]].
    + replace (j =? length bs) with false by (symmetry; apply Nat.eqb_neq; lia). exact (H j b Hb).
    + rewrite Nat.eqb_refl. constructor; auto.
  - destruct o as [k|]; cbn [our_bs] in *.
    + destruct H as [Hk H]. rewrite app_length. split; [lia|]. intros j b Hj.
      destruct (ListLemmas.nth_snoc _ _ _ _ Hj) as [[Hlt Hb]|[-> ->]]; [exact (H j b Hb)|].
      replace (length bs =? k) with false by (symmetry; apply Nat.eqb_neq; lia). constructor; auto.
    + intros j b Hj. destruct (ListLemmas.nth_snoc _ _ _ _ Hj) as [[Hlt Hb]|[-> ->]]; [exact (H j b Hb)|]. constructor; auto.
Qed.

Lemma filter_ids_snoc (p : nat -> bool) (bs : list dbatch) i n :
  filter p (seg_ids (concat (bs ++ [[(i, n)]]))) = filter p (seg_ids (concat bs)) ++ filter p [i].
Proof. rewrite concat_app, seg_ids_app, filter_app. reflexivity. Qed.

Lemma gok_merge wl c g i sz b : gok wl c g -> (llim c <? sz)%N = false ->
  gok wl {| lfree := lfree c; lown := b; llim := (llim c - sz)%N; lmerged := lmerged c;
            lbatches := lbatches c ++ [i]; lover := None; lreplied := lreplied c |}
      (merge_data v_real g i (rq i) sz).
Proof.
  intros [H1 H2 H3 H4 H5 H6 H7 H8 H9] Hsz. apply N.ltb_ge in Hsz. unfold merge_data, gids in *.
  destruct H5 as [h H5]. destruct H9 as (hh & hn & hb & hbs & ht & H9 & H9').
  assert (Hhd1 : forall x0, exists h0 n0 b0 bs0 t0, gx_batches g ++ [x0] = ((h0, n0) :: b0) :: bs0 /\ lbatches c ++ [i] = h0 :: t0).
  { intros x0. exists hh, hn, hb, (hbs ++ [x0]), (ht ++ [i]). rewrite H9, H9'. auto. }
  assert (Hhd2 : forall k x0, exists h0 n0 b0 bs0 t0, app_at (gx_batches g) k x0 = ((h0, n0) :: b0) :: bs0 /\ lbatches c ++ [i] = h0 :: t0).
  { intros k x0. rewrite H9, H9'. destruct k; simpl.
    - exists hh, hn, (hb ++ [x0]), hbs, (ht ++ [i]). auto.
    - exists hh, hn, hb, (app_at hbs k x0), (ht ++ [i]). auto. }
  assert (Hm : exists h0, lbatches c ++ [i] = h0 :: map fst (gx_merged g ++ [(i, sz)])).
  { exists h. rewrite H5, map_app. reflexivity. }
  assert (Hlim : (sum_sizes (gx_merged g ++ [(i, sz)]) + (llim c - sz))%N = gx_lim0 g).
  { rewrite sum_sizes_app. simpl. lia. }
  assert (Hsy : gx_sync g || rq_sync (rq i) = existsb (fun i0 => rq_sync (rq i0)) (lbatches c ++ [i])).
  { rewrite existsb_app, H4. simpl. rewrite orb_false_r. reflexivity. }
  assert (Hn1 : putid i = true -> 1%N = req_nrec (rq i)) by (unfold putid, req_nrec; intros ->; reflexivity).
  fold (putid i). destruct (putid i) eqn:Ep; [destruct (gx_our g) as [k|] eqn:Eo|].
  1:{ (* Merge put, appended to ourBatch *)
    cbn [our_bs] in H3. destruct H3 as [Hk H3]. destruct (app_at_put (gx_batches g) i 1%N Ep k Hk H3) as (A1 & A2 & A3).
    constructor; unfold gids; cbn [gx_batches gx_our gx_sync gx_merged gx_lim0 lbatches llim lfree v_real v_sync_put]; auto.
    - rewrite A1, filter_app, H1. simpl. rewrite Ep. reflexivity.
    - rewrite A2, filter_app, H2. simpl. unfold nputid. rewrite Ep, app_nil_r. reflexivity.
    - cbn [our_bs]. rewrite app_at_length. split; auto.
    - apply app_at_forall; auto. }
  (* Merge put that creates ourBatch; Merge batch *)
  all: constructor; unfold gids; cbn [gx_batches gx_our gx_sync gx_merged gx_lim0 lbatches llim lfree v_real v_sync_put]; auto.
  all: try (rewrite filter_ids_snoc, filter_app, ?H1, ?H2; reflexivity).
  all: try (apply (our_bs_snoc _ _ _ _ _ H3); [rewrite Ep; reflexivity | congruence]).
  all: rewrite concat_app; apply Forall_app; split; auto; repeat constructor; auto.
Qed.

Ltac dsimp := cbn [dstep]; unfold getw;
  repeat match goal with E : nth_error (ws ?s) ?i = Some _ |- _ => rewrite E end;
  repeat match goal with E : pc ?w = _ |- _ => rewrite E end;
  cbn [dgs dseq djl dmem with_g ws setw with_ws with_lock with_env with_logs].

Lemma xstep_G x a x' : Ginv (ws (xb x)) (dgs (xd x)) -> xstep mp v_real rq x a = Some x' ->
  Ginv (ws (xb x')) (dgs (xd x')).
Proof.
  intros HG H. destruct a as [a|q].
  2:{ apply xstep_txn in H. destruct H as (-> & -> & _). exact HG. }
  apply xstep_base in H. destruct H as (H & Hd & _). rewrite Hd. clear Hd. destruct x as [s d]. cbn [xb xd] in *.
  destruct (step_shape _ _ _ _ H) as [He | i w w' t Hi Hm -> | i l w wl w' wl' t Hn Hi Hl Hm ->]; cbn [ws with_ws].
  - destruct He; exact HG.
  - pose proof (proj2 HG i w) as Hold.
    destruct Hm; dsimp; rewrite Hp in Hold;
      first [apply (G_upd_same _ _ _ _ _ HG Hi) | apply (G_upd _ _ _ _ _ _ HG Hi)]; cbn [pc set_pc];
      intros c' Hc'; try discriminate Hc'.
    + (* AFlushOk *)
      destruct (wmerge w); cbn [gpc_of] in Hc'; inversion Hc'; subst c'; apply (gok_init l (set_pc w _)); reflexivity.
    + (* AMergeDone *) inversion Hc'; subst c'. apply (gok_keep w _ c _ _ (Hold c Hi eq_refl)); reflexivity.
    + (* AJournalOk *) inversion Hc'; subst c'. apply gok_set_seq. apply (gok_keep w _ c _ _ (Hold c Hi eq_refl)); reflexivity.
    + (* AApply *) inversion Hc'; subst c'. apply (gok_keep w _ c _ _ (Hold c Hi eq_refl)); reflexivity.
  - assert (HG1 : Ginv (upd (ws s) i w') (dgs d)).
    { apply (G_upd_same _ _ _ _ _ HG Hi). destruct Hm; intros c' Hc'; discriminate Hc'. }
    assert (El : nth_error (upd (ws s) i w') l = Some wl) by (rewrite nth_upd_other by exact Hn; exact Hl).
    pose proof (proj2 HG l wl) as Hold.
    destruct Hm; dsimp; rewrite Hpl in Hold.
    + (* ASelMerge *)
      specialize (Hold c Hl eq_refl). unfold merge_decide. destruct (llim c <? wsize w)%N eqn:Elt.
      * apply (G_upd_same _ _ _ _ _ HG1 El). cbn [pc set_pc gpc_of]. intros c' Hc'; inversion Hc'; subst c'.
        apply (gok_keep wl _ c _ _ Hold); reflexivity.
      * cbn [dgs with_g]. apply (G_upd _ _ _ _ _ _ HG1 El). cbn [pc set_pc gpc_of]. intros c' Hc'; inversion Hc'; subst c'.
        unfold getg. eapply gok_keep; [apply gok_merge; eassumption| | | |]; reflexivity.
    + (* AReplyTrue *)
      apply (G_upd_same _ _ _ _ _ HG1 El). cbn [pc set_pc gpc_of]. intros c' Hc'; inversion Hc'; subst c'.
      apply (gok_keep wl _ c _ _ (Hold c Hl eq_refl)); reflexivity.
    + apply (G_upd_same _ _ _ _ _ HG1 El). intros c' Hc'; discriminate Hc'.
    + apply (G_upd_same _ _ _ _ _ HG1 El). intros c' Hc'; discriminate Hc'.
Qed.

Lemma gok_perm wl c g : gok wl c g -> Permutation (gids g) (lbatches c).
Proof. intros H. apply (filters_perm putid); [apply (gk_put _ _ _ H)|apply (gk_bat _ _ _ H)]. Qed.

Definition jids (JL : list drec) : list nat := concat (map rec_ids JL).

Lemma jids_app JL r : jids (JL ++ [r]) = jids JL ++ rec_ids r.
Proof. unfold jids. rewrite map_app, concat_app. simpl. rewrite app_nil_r. reflexivity. Qed.

(* the requests a leader has taken into its group and told so (the request whose `true` is still to
   be sent is counted when it is sent) *)
Definition claim_of (p : wpc) : option (list nat) :=
  match p with
  | WLMerge c | WLJournal c => Some (lbatches c)
  | WLReply c _ => Some (removelast (lbatches c))
  | _ => None
  end.

Definition sbusy (p : wpc) : bool :=
  match p with WIdle | WSelect | WLFlush | WWaitMerged => false | _ => true end.

Lemma claim_holds p cl : claim_of p = Some cl -> holdsp p = 1.
Proof. destruct p; simpl; intros H; try discriminate; reflexivity. Qed.

(* no writer is claimed twice *)
Record Ninv (L : list writer) (J : list nat) : Prop := {
  n_nodup : NoDup J;
  n_pre : forall l wl cl, nth_error L l = Some wl -> claim_of (pc wl) = Some cl -> NoDup (J ++ cl);
  n_busy : forall i, In i J \/ (exists l wl cl, nth_error L l = Some wl /\ claim_of (pc wl) = Some cl /\ In i cl) ->
           exists w, nth_error L i = Some w /\ sbusy (pc w) = true
}.

Lemma N_upd1 L J i w w' : Ninv L J -> nth_error L i = Some w ->
  (sbusy (pc w) = true -> sbusy (pc w') = true) ->
  (forall cl, claim_of (pc w') = Some cl -> claim_of (pc w) = Some cl) ->
  Ninv (upd L i w') J.
Proof.
  intros [H1 H2 H3] Hi Hb Hc. constructor; auto.
  - intros l wl cl Hl Hcl. apply nth_upd_inv in Hl. destruct Hl as [[-> ->]|[Hn Hl]]; eauto.
  - intros j Hj.
    assert (Hold : In j J \/ (exists l wl cl, nth_error L l = Some wl /\ claim_of (pc wl) = Some cl /\ In j cl)).
    { destruct Hj as [Hj|(l & wl & cl & Hl & Hcl & Hin)]; auto. right.
      apply nth_upd_inv in Hl. destruct Hl as [[-> ->]|[Hn Hl]]; eauto 8. }
    destruct (H3 j Hold) as (wj & Hwj & Hbj).
    destruct (nth_upd_some L i w' j wj Hwj) as (wj' & Hj' & [[-> ->]|[Hne ->]]); eauto.
    exists w'. split; auto. apply Hb. rewrite Hi in Hwj. inversion Hwj; subst; auto.
Qed.

Lemma not_claimed L J i w : Ninv L J -> nth_error L i = Some w -> sbusy (pc w) = false ->
  ~ In i J /\ forall l wl cl, nth_error L l = Some wl -> claim_of (pc wl) = Some cl -> ~ In i cl.
Proof.
  intros [H1 H2 H3] Hi Hb. split.
  - intros Hin. destruct (H3 i (or_introl Hin)) as (w0 & Hw0 & Hb0). rewrite Hi in Hw0. inversion Hw0; subst. congruence.
  - intros l wl cl Hl Hcl Hin. destruct (H3 i) as (w0 & Hw0 & Hb0); [right; eauto 8|].
    rewrite Hi in Hw0. inversion Hw0; subst. congruence.
Qed.

(* the leader starts its group with its own request *)
Lemma N_flush s J l w w' : inv s -> Ninv (ws s) J -> nth_error (ws s) l = Some w -> pc w = WLFlush ->
  claim_of (pc w') = Some [l] -> sbusy (pc w') = true -> Ninv (upd (ws s) l w') J.
Proof.
  intros Hv HN Hl Hp Hc Hb. destruct (not_claimed _ _ l w HN Hl) as [Hn1 Hn2]. { rewrite Hp. reflexivity. }
  destruct HN as [H1 H2 H3].
  pose proof (holds_pc _ _ Hp eq_refl) as Hh.
  assert (Hoth : forall j wj cl, j <> l -> nth_error (ws s) j = Some wj -> claim_of (pc wj) = Some cl -> False).
  { intros j wj cl Hj Hwj Hcl. apply claim_holds in Hcl. destruct (only_leader s l w Hv Hl Hh) as [Ho _].
    specialize (Ho j wj Hj Hwj). unfold holds in Ho. lia. }
  constructor; auto.
  - intros j wj cl Hj Hcl. apply nth_upd_inv in Hj. destruct Hj as [[-> ->]|[Hn Hj]].
    + rewrite Hc in Hcl. inversion Hcl; subst. apply ListLemmas.NoDup_snoc; auto.
    + exfalso. eapply Hoth; eauto.
  - intros j Hj.
    assert (Hcase : j = l \/ In j J).
    { destruct Hj as [Hj|(l0 & wl0 & cl & Hl0 & Hcl & Hin)]; auto.
      apply nth_upd_inv in Hl0. destruct Hl0 as [[-> ->]|[Hn Hl0]].
      - rewrite Hc in Hcl. inversion Hcl; subst. destruct Hin as [<-|[]]; auto.
      - exfalso. eapply Hoth; eauto. }
    destruct Hcase as [->|Hin].
    + exists w'. split; auto. apply (nth_upd_same _ _ _ w); auto.
    + destruct (H3 j (or_introl Hin)) as (wj & Hwj & Hbj).
      destruct (nth_upd_some (ws s) l w' j wj Hwj) as (wj' & Hj' & [[-> ->]|[Hne ->]]); eauto.
Qed.

(* `true` is sent: the requester becomes a member *)
Lemma N_reply s J i l wi wl c x wi' : inv s -> P2 (ws s) -> Ninv (ws s) J ->
  nth_error (ws s) l = Some wl -> nth_error (ws s) i = Some wi -> pc wl = WLReply c x -> pc wi = WWaitMerged ->
  pc wi' = WWaitAck ->
  Ninv (upd (upd (ws s) i wi') l (set_pc wl (WLMerge (after_reply c i)))) J.
Proof.
  intros Hv HP HN E E0 E1 E2 E3.
  assert (Hn : i <> l) by (apply (pcs_differ _ _ _ _ _ E0 E); congruence).
  assert (Hix : i = x) by exact (P2_reply_is_x s l wl c x i wi Hv HP E E1 E0 E2). subst x.
  pose proof (HP l wl E) as Hok. rewrite E1 in Hok. simpl in Hok. destruct Hok as [Hb _].
  assert (Hrl : removelast (lbatches c) = l :: lreplied c).
  { rewrite Hb. change (l :: lreplied c ++ [i]) with ((l :: lreplied c) ++ [i]). apply removelast_last. }
  pose proof (holds_pc _ _ E1 eq_refl) as Hh.
  destruct (not_claimed _ _ i wi HN E0) as [Hn1 Hn2]. { rewrite E2. reflexivity. }
  assert (Hoth : forall j wj cl, j <> l -> nth_error (ws s) j = Some wj -> claim_of (pc wj) = Some cl -> False).
  { intros j wj cl Hj Hwj Hcl. apply claim_holds in Hcl. destruct (only_leader s l wl Hv E Hh) as [Ho _].
    specialize (Ho j wj Hj Hwj). unfold holds in Ho. lia. }
  assert (Hcl0 : claim_of (pc wl) = Some (l :: lreplied c)) by (rewrite E1; simpl; rewrite Hrl; reflexivity).
  destruct HN as [H1 H2 H3].
  assert (Hnew : lbatches c = (l :: lreplied c) ++ [i]) by (rewrite Hb; reflexivity).
  constructor; auto.
  - intros j wj cl Hj Hcl. apply nth_upd2_inv in Hj. destruct Hj as [[-> ->]|[(Hjl & -> & ->)|(Hjl & Hji & Hj)]].
    + cbn [pc set_pc claim_of lbatches after_reply] in Hcl. inversion Hcl; subst cl. rewrite Hnew, app_assoc. apply ListLemmas.NoDup_snoc.
      * exact (H2 l wl _ E Hcl0).
      * intros Hin. apply in_app_or in Hin. destruct Hin as [Hin|Hin]; [auto|]. exact (Hn2 l wl _ E Hcl0 Hin).
    + rewrite E3 in Hcl. discriminate.
    + exfalso. eapply Hoth; eauto.
  - intros j Hj.
    assert (Hcase : j = i \/ In j J \/ In j (l :: lreplied c)).
    { destruct Hj as [Hj|(l0 & wl0 & cl & Hl0 & Hcl & Hin)]; auto.
      apply nth_upd2_inv in Hl0. destruct Hl0 as [[-> ->]|[(Hjl & -> & ->)|(Hjl & Hji & Hl0)]].
      - cbn [pc set_pc claim_of lbatches after_reply] in Hcl. inversion Hcl; subst cl. rewrite Hnew in Hin. apply in_app_or in Hin.
        destruct Hin as [Hin|[<-|[]]]; auto.
      - rewrite E3 in Hcl. discriminate.
      - exfalso. eapply Hoth; eauto. }
    destruct Hcase as [->|Hold].
    + exists wi'. split; [eapply nth_upd2_i; eauto|]. rewrite E3. reflexivity.
    + destruct (H3 j) as (wj & Hwj & Hbj). { destruct Hold; auto. right. eauto 8. }
      destruct (Nat.eq_dec j l) as [->|Hjl].
      * exists (set_pc wl (WLMerge (after_reply c i))). split; [eapply nth_upd2_l; eauto|]. reflexivity.
      * destruct (Nat.eq_dec j i) as [->|Hji].
        -- exists wi'. split; [eapply nth_upd2_i; eauto|]. rewrite E3. reflexivity.
        -- exists wj. split; auto. rewrite nth_upd2_other; auto.
Qed.

(* the group goes to the journal: its requests move from the leader's claim to the log *)
Lemma N_journal s J l w c w' ids : inv s -> Ninv (ws s) J -> nth_error (ws s) l = Some w -> pc w = WLJournal c ->
  Permutation ids (lbatches c) -> claim_of (pc w') = None -> sbusy (pc w') = true ->
  Ninv (upd (ws s) l w') (J ++ ids).
Proof.
  intros Hv HN Hl Hp Hperm Hc Hb.
  pose proof (holds_pc _ _ Hp eq_refl) as Hh.
  assert (Hoth : forall j wj cl, j <> l -> nth_error (ws s) j = Some wj -> claim_of (pc wj) = Some cl -> False).
  { intros j wj cl Hj Hwj Hcl. apply claim_holds in Hcl. destruct (only_leader s l w Hv Hl Hh) as [Ho _].
    specialize (Ho j wj Hj Hwj). unfold holds in Ho. lia. }
  destruct HN as [H1 H2 H3].
  assert (Hnd : NoDup (J ++ ids)).
  { eapply Permutation_NoDup; [|eapply (H2 l w (lbatches c)); eauto; rewrite Hp; reflexivity].
    apply Permutation_app_head. apply Permutation_sym. exact Hperm. }
  assert (Hnone : forall j wj cl, nth_error (upd (ws s) l w') j = Some wj -> claim_of (pc wj) = Some cl -> False).
  { intros j wj cl Hj Hcl. apply nth_upd_inv in Hj. destruct Hj as [[-> ->]|[Hn Hj]].
    - rewrite Hc in Hcl. discriminate.
    - eapply Hoth; eauto. }
  constructor; auto.
  - intros j wj cl Hj Hcl. exfalso. eapply Hnone; eauto.
  - intros j Hj.
    assert (Hin : In j J \/ In j (lbatches c)).
    { destruct Hj as [Hj|(l0 & wl0 & cl & Hl0 & Hcl & _)]; [|exfalso; eapply Hnone; eauto].
      apply in_app_or in Hj. destruct Hj as [Hj|Hj]; auto. right. eapply Permutation_in; eauto. }
    destruct (H3 j) as (wj & Hwj & Hbj).
    { destruct Hin; auto. right. exists l, w, (lbatches c). rewrite Hp. auto. }
    destruct (nth_upd_some (ws s) l w' j wj Hwj) as (wj' & Hj' & [[-> ->]|[Hne ->]]); eauto.
Qed.

Lemma xstep_N x a x' : inv (xb x) -> P2 (ws (xb x)) -> Ginv (ws (xb x)) (dgs (xd x)) ->
  Ninv (ws (xb x)) (jids (djl (xd x))) -> xstep mp v_real rq x a = Some x' ->
  Ninv (ws (xb x')) (jids (djl (xd x'))).
Proof.
  intros Hv HP HG HN H. destruct a as [a|q].
  2:{ apply xstep_txn in H. destruct H as (-> & _ & -> & _). exact HN. }
  apply xstep_base in H. destruct H as (H & Hd & _). rewrite Hd. clear Hd. destruct x as [s d]. cbn [xb xd] in *.
  destruct (step_shape _ _ _ _ H) as [He | i w w' t Hi Hm -> | i l w wl w' wl' t Hn Hi Hl Hm ->]; cbn [ws with_ws].
  - destruct He; exact HN.
  - destruct Hm; dsimp;
      (* the moving writer stays busy and claims nobody new *)
      try (apply (N_upd1 _ _ _ _ _ HN Hi); rewrite Hp; cbn [pc set_pc sbusy claim_of];
           [ intros Hb; first [reflexivity | discriminate Hb]
           | intros cl Hcl; first [discriminate Hcl | exact Hcl] ]).
    + (* AFlushOk *) apply (N_flush _ _ _ _ _ Hv HN Hi Hp); cbn [pc set_pc]; destruct (wmerge w); reflexivity.
    + (* AJournalOk *) rewrite jids_app. cbn [rec_ids dr_segs].
      apply (N_journal _ _ _ _ c _ _ Hv HN Hi Hp); [|reflexivity..]. apply (gok_perm w). apply (proj2 HG l w c Hi). rewrite Hp. reflexivity.
    + (* AJournalFail *) rewrite jids_app. cbn [rec_ids dr_segs].
      apply (N_journal _ _ _ _ c _ _ Hv HN Hi Hp); [|reflexivity..]. apply (gok_perm w). apply (proj2 HG l w c Hi). rewrite Hp. reflexivity.
  - assert (El : nth_error (upd (ws s) i w') l = Some wl) by (rewrite nth_upd_other by exact Hn; exact Hl).
    assert (HN1 : Ninv (upd (ws s) i w') (jids (djl d))).
    { apply (N_upd1 _ _ _ _ _ HN Hi); destruct Hm; rewrite Hp; cbn [pc set_pc sbusy claim_of];
        first [intros Hb; first [reflexivity | discriminate Hb] | intros cl Hcl; discriminate Hcl]. }
    destruct Hm; dsimp.
    + (* ASelMerge *)
      unfold merge_decide. destruct (llim c <? wsize w)%N; cbn [djl with_g];
        apply (N_upd1 _ _ _ _ _ HN1 El); rewrite Hpl; cbn [pc set_pc sbusy claim_of lbatches]; auto.
      rewrite removelast_last. auto.
    + (* AReplyTrue *) eapply N_reply; try eassumption; reflexivity.
    + apply (N_upd1 _ _ _ _ _ HN1 El); rewrite Hpl; cbn [pc set_pc sbusy claim_of]; auto.
    + apply (N_upd1 _ _ _ _ _ HN1 El); rewrite Hpl; cbn [pc set_pc sbusy claim_of]; auto.
Qed.

(* a leader past a successful writeJournal: the log has the successful record it leads, holding its group *)
Definition post_ok (p : wpc) : option lctx :=
  match p with
  | WLApply c | WLPublish c | WLRotate c | WLUnlock c _ ROk => Some c
  | _ => None
  end.

Definition lrec (JL : list drec) (l : nat) (c : lctx) : Prop :=
  exists r, In r JL /\ dr_ok r = true /\ dr_leader r = l /\ In l (rec_ids r) /\ forall i, In i (lbatches c) -> In i (rec_ids r).

Definition Linv (L : list writer) (JL : list drec) : Prop :=
  forall l wl c, nth_error L l = Some wl -> post_ok (pc wl) = Some c -> lrec JL l c.

Definition okres (p : wpc) : bool := match p with WRet ROk | WDone ROk => true | _ => false end.

(* a nil result means the request is in a journalled record *)
Definition Rinv (L : list writer) (JL : list drec) : Prop :=
  forall i w, nth_error L i = Some w -> okres (pc w) = true -> exists r, In r JL /\ dr_ok r = true /\ In i (rec_ids r).

Lemma lrec_mono JL r l c : lrec JL l c -> lrec (JL ++ [r]) l c.
Proof. intros (r0 & H0 & H). exists r0. split; auto. apply in_or_app; auto. Qed.

Lemma Linv_mono L JL r : Linv L JL -> Linv L (JL ++ [r]).
Proof. intros H l wl c Hl Hp. apply lrec_mono. eapply H; eauto. Qed.

Lemma Rinv_mono L JL r : Rinv L JL -> Rinv L (JL ++ [r]).
Proof. intros H i w Hi Hp. destruct (H i w Hi Hp) as (r0 & H0 & H1). exists r0. split; auto. apply in_or_app; auto. Qed.

Lemma L_upd1 L JL i w w' : Linv L JL -> nth_error L i = Some w ->
  (forall c', post_ok (pc w') = Some c' -> exists c, post_ok (pc w) = Some c /\ lbatches c' = lbatches c) ->
  Linv (upd L i w') JL.
Proof.
  intros HL Hi Hc l wl c Hl Hp. apply nth_upd_inv in Hl. destruct Hl as [[-> ->]|[Hn Hl]]; [|eapply HL; eauto].
  destruct (Hc c Hp) as (c0 & Hc0 & Hb). destruct (HL i w c0 Hi Hc0) as (r & H1 & H2 & H3 & H4 & H5).
  exists r. repeat split; auto. intros j Hj. apply H5. rewrite <- Hb. exact Hj.
Qed.

Lemma R_upd1 L JL i w w' : Rinv L JL -> nth_error L i = Some w -> (okres (pc w') = true -> okres (pc w) = true) ->
  Rinv (upd L i w') JL.
Proof.
  intros HR Hi Hc j wj Hj Hp. apply nth_upd_inv in Hj. destruct Hj as [[-> ->]|[Hn Hj]]; eauto.
Qed.

Lemma R_new L JL i w w' r : Rinv L JL -> nth_error L i = Some w -> In r JL -> dr_ok r = true -> In i (rec_ids r) ->
  Rinv (upd L i w') JL.
Proof.
  intros HR Hi H1 H2 H3 j wj Hj Hp. apply nth_upd_inv in Hj. destruct Hj as [[-> ->]|[Hn Hj]]; eauto.
Qed.

Lemma xstep_L x a x' : P2 (ws (xb x)) -> Ginv (ws (xb x)) (dgs (xd x)) ->
  Linv (ws (xb x)) (djl (xd x)) -> xstep mp v_real rq x a = Some x' ->
  Linv (ws (xb x')) (djl (xd x')).
Proof.
  intros HP HG HL H. destruct a as [a|q].
  2:{ apply xstep_txn in H. destruct H as (-> & _ & -> & _). exact HL. }
  apply xstep_base in H. destruct H as (H & Hd & _). rewrite Hd. clear Hd. destruct x as [s d]. cbn [xb xd] in *.
  destruct (step_shape _ _ _ _ H) as [He | i w w' t Hi Hm -> | i l w wl w' wl' t Hn Hi Hl Hm ->]; cbn [ws with_ws].
  - destruct He; exact HL.
  - destruct Hm; dsimp;
      (* a leader past the journal keeps its batches; a failure is not a nil result *)
      try (try apply Linv_mono; apply (L_upd1 _ _ _ _ _ HL Hi); rewrite Hp; cbn [pc set_pc]; split_if; cbn [post_ok];
           intros c' Hc';
           first [ discriminate Hc' | inversion Hc'; subst c'; eexists; split; reflexivity
                 | destruct e; first [discriminate Hc' | exfalso; apply He; reflexivity] ]).
    (* AJournalOk *)
    pose proof (proj2 HG l w c Hi) as Hold. rewrite Hp in Hold. specialize (Hold eq_refl).
    pose proof (HP l w Hi) as Hok. rewrite Hp in Hok. cbn [lead_ok] in Hok.
    intros j wj cj Hj Hpj. apply nth_upd_inv in Hj. destruct Hj as [[-> ->]|[Hnj Hj]].
    + cbn [pc set_pc post_ok] in Hpj. inversion Hpj; subst cj.
      eexists. split; [apply in_or_app; right; left; reflexivity|]. cbn [dr_ok dr_leader rec_ids dr_segs].
      assert (Hin : forall i0, In i0 (lbatches c) -> In i0 (seg_ids (concat (gx_batches (getg d l))))).
      { intros i0 Hi0. eapply Permutation_in; [apply Permutation_sym; apply (gok_perm _ _ _ Hold)|exact Hi0]. }
      repeat split; auto. apply Hin. rewrite Hok. left. reflexivity.
    + apply lrec_mono. eapply HL; eauto.
  - assert (El : nth_error (upd (ws s) i w') l = Some wl) by (rewrite nth_upd_other by exact Hn; exact Hl).
    assert (HL1 : Linv (upd (ws s) i w') (djl d)).
    { apply (L_upd1 _ _ _ _ _ HL Hi). destruct Hm; intros c' Hc'; discriminate Hc'. }
    destruct Hm; dsimp; unfold merge_decide; split_if; cbn [djl with_g];
      apply (L_upd1 _ _ _ _ _ HL1 El); rewrite Hpl; cbn [pc set_pc post_ok]; intros c' Hc';
      first [ discriminate Hc' | destruct e; first [discriminate Hc' | inversion Hc'; subst c'; eexists; split; reflexivity] ].
Qed.

(* a writer returns its group's result: nil only if the group's record was journalled *)
Lemma R_result L JL l c e i w w' : Rinv L JL -> (e = ROk -> lrec JL l c) -> nth_error L i = Some w ->
  i = l \/ In i (lbatches c) -> pc w' = WRet e -> Rinv (upd L i w') JL.
Proof.
  intros HR HL Hi Hin Hp'. destruct e.
  1:{ destruct (HL eq_refl) as (r & R1 & R2 & R3 & R4 & R5). apply (R_new _ _ _ _ _ r HR Hi R1 R2).
      destruct Hin as [->|Hin]; auto. }
  all: apply (R_upd1 _ _ _ _ _ HR Hi); rewrite Hp'; intros Hx; discriminate Hx.
Qed.

Lemma xstep_R x a x' : inv (xb x) -> Minv (ws (xb x)) -> Linv (ws (xb x)) (djl (xd x)) ->
  Rinv (ws (xb x)) (djl (xd x)) -> xstep mp v_real rq x a = Some x' ->
  Rinv (ws (xb x')) (djl (xd x')).
Proof.
  intros Hv HM HL HR H. destruct a as [a|q].
  2:{ apply xstep_txn in H. destruct H as (-> & _ & -> & _). exact HR. }
  apply xstep_base in H. destruct H as (H & Hd & _). rewrite Hd. clear Hd. destruct x as [s d]. cbn [xb xd] in *.
  destruct (step_shape _ _ _ _ H) as [He | i w w' t Hi Hm -> | i l w wl w' wl' t Hn Hi Hl Hm ->]; cbn [ws with_ws].
  - destruct He; exact HR.
  - destruct Hm; dsimp;
      try (try apply Rinv_mono; apply (R_upd1 _ _ _ _ _ HR Hi); cbn [pc set_pc]; split_if; cbn [okres];
           intros Hx; discriminate Hx).
    + (* ARelease *)
      apply (R_result _ _ l c e l w _ HR); [|exact Hi|left; reflexivity|reflexivity].
      intros ->. apply (HL l w c Hi). rewrite Hp. reflexivity.
    + (* AReturn *) apply (R_upd1 _ _ _ _ _ HR Hi). rewrite Hp. destruct e; auto.
  - assert (El : nth_error (upd (ws s) i w') l = Some wl) by (rewrite nth_upd_other by exact Hn; exact Hl).
    assert (Hlrec : forall c k, pc wl = WLUnlock c k ROk -> lrec (djl d) l c).
    { intros c k Hpl. apply (HL l wl c Hl). rewrite Hpl. reflexivity. }
    assert (HR1 : Rinv (upd (ws s) i w') (djl d)).
    { destruct Hm; try (apply (R_upd1 _ _ _ _ _ HR Hi); intros Hx; discriminate Hx).
      (* AAck: the acknowledged writer is in the leader's group *)
      apply (R_result _ _ l c e i w _ HR); [intros ->; exact (Hlrec c k Hpl)|exact Hi| |reflexivity]. right.
      destruct (HM i w Hi Hp) as (l0 & wl0 & c0 & Hl0 & Hc0 & Hin).
      pose proof (holds_pc _ _ Hpl eq_refl) as Hh.
      destruct (same_leader s l wl l0 wl0 Hv Hl Hh Hl0) as [-> ->]. { unfold holds. eapply ctx_holds; eauto. }
      rewrite Hpl in Hc0. inversion Hc0; subst c0. exact Hin. }
    destruct Hm; dsimp; unfold merge_decide; split_if; cbn [djl with_g];
      try (apply (R_upd1 _ _ _ _ _ HR1 El); cbn [pc set_pc okres]; intros Hx; discriminate Hx).
    (* AHandover *)
    apply (R_result _ _ l c e l wl _ HR1); [intros ->; exact (Hlrec c k Hpl)|exact El|left; reflexivity|reflexivity].
Qed.

Definition numbering_all (JL : list drec) : list (nat * N * N) := concat (map rec_numbering (filter dr_ok JL)).

Lemma numbering_all_snoc JL r : numbering_all (JL ++ [r]) = numbering_all JL ++ (if dr_ok r then rec_numbering r else []).
Proof.
  unfold numbering_all. rewrite filter_app. simpl. destruct (dr_ok r); simpl.
  - rewrite map_app, concat_app. simpl. rewrite app_nil_r. reflexivity.
  - rewrite !app_nil_r. reflexivity.
Qed.

Fixpoint jend (lo : N) (JL : list drec) : N :=
  match JL with [] => lo | r :: t => jend (dr_seq r + rec_count r)%N t end.
Fixpoint jsorted (lo : N) (JL : list drec) : Prop :=
  match JL with [] => True | r :: t => (lo <= dr_seq r)%N /\ jsorted (dr_seq r + rec_count r)%N t end.

Lemma jend_snoc JL : forall lo r, jend lo (JL ++ [r]) = (dr_seq r + rec_count r)%N.
Proof. induction JL; intros; simpl; auto. Qed.

Lemma jsorted_snoc JL : forall lo r, jsorted lo JL -> (jend lo JL <= dr_seq r)%N -> jsorted lo (JL ++ [r]).
Proof. induction JL; intros lo r H1 H2; simpl in *; auto. destruct H1. split; auto. Qed.

Definition isapply (p : wpc) : bool := match p with WLApply _ => true | _ => false end.

(* memdb insertions = journal numbering *)
Definition Ainv (L : list writer) (d : dstate) : Prop :=
  (forall l wl, nth_error L l = Some wl -> isapply (pc wl) = true ->
     dmem d ++ put_all (gx_seq (getg d l)) (gx_batches (getg d l)) = numbering_all (djl d)) /\
  ((forall l wl, nth_error L l = Some wl -> isapply (pc wl) = false) -> dmem d = numbering_all (djl d)).

(* the sequence ranges of the log increase (from 1 on), and db.seq + 1 — plus the group's records while
   its leader is between writeJournal and the publication of db.seq — is beyond the last of them *)
Definition Sinv (L : list writer) (d : dstate) : Prop :=
  jsorted 1 (djl d) /\
  (forall l wl, nth_error L l = Some wl -> pendp (pc wl) = true ->
     (jend 1 (djl d) <= dseq d + 1 + batches_len (gx_batches (getg d l)))%N) /\
  ((forall l wl, nth_error L l = Some wl -> pendp (pc wl) = false) -> (jend 1 (djl d) <= dseq d + 1)%N).

Lemma Ainv_held L d : Ainv L d =
  held isapply L (fun l => dmem d ++ put_all (gx_seq (getg d l)) (gx_batches (getg d l)) = numbering_all (djl d))
    (dmem d = numbering_all (djl d)).
Proof. reflexivity. Qed.

Lemma Sinv_held L d : Sinv L d =
  (jsorted 1 (djl d) /\
   held pendp L (fun l => (jend 1 (djl d) <= dseq d + 1 + batches_len (gx_batches (getg d l)))%N)
     (jend 1 (djl d) <= dseq d + 1)%N).
Proof. reflexivity. Qed.

Lemma getg_with_other d l g l0 : l0 <> l -> getg (with_g d l g) l0 = getg d l0.
Proof. intros Hn. unfold getg, with_g. cbn [dgs]. apply nth_upd_other_d; auto. Qed.

Lemma isapply_holds p : isapply p = true -> holdsp p = 1.
Proof. destruct p; simpl; intros; try discriminate; reflexivity. Qed.

Lemma xstep_A x a x' : inv (xb x) -> Ginv (ws (xb x)) (dgs (xd x)) ->
  Ainv (ws (xb x)) (xd x) -> xstep mp v_real rq x a = Some x' -> Ainv (ws (xb x')) (xd x').
Proof.
  intros Hv HG HA H. destruct a as [a|q].
  2:{ apply xstep_txn in H. destruct H as (-> & Hg & Hj & Hm & _). destruct HA as [A1 A2].
      unfold Ainv, getg. rewrite Hg, Hj, Hm. split; auto. }
  apply xstep_base in H. destruct H as (H & Hd & _). rewrite Hd. clear Hd. destruct x as [s d]. cbn [xb xd] in *.
  destruct HG as [Hlen _]. rewrite Ainv_held in *.
  destruct (step_shape _ _ _ _ H) as [He | i w w' t Hi Hm -> | i l w wl w' wl' t Hn Hi Hl Hm ->]; cbn [ws with_ws].
  - destruct He; exact HA.
  - destruct Hm; dsimp;
      try (apply (held_upd1 _ _ _ _ _ _ _ _ _ HA Hi);
           [ rewrite Hp; reflexivity | cbn [pc set_pc]; split_if; reflexivity
           | intros ? ? ? ? ? HP0; exact HP0 | intros HQ; exact HQ ]).
    + (* AFlushOk *)
      apply (held_upd1 _ _ _ _ _ _ _ _ _ HA Hi); [rewrite Hp; reflexivity | destruct (wmerge w); reflexivity | | intros HQ; exact HQ].
      intros l0 wl0 Hn0 _ _ HP0. rewrite getg_with_other by exact Hn0. exact HP0.
    + (* AJournalOk: the record just written is what the putMem loop is about to insert *)
      apply (held_leader isapply s l w _ _ isapply_holds Hv Hi (holds_pc _ _ Hp eq_refl) HA).
      rewrite Hp. cbn [pc set_pc isapply]. intros A2.
      unfold getg. cbn [dgs dmem djl]. rewrite nth_upd_same_d by (rewrite Hlen; eapply ListLemmas.nth_error_Some_lt; eauto).
      rewrite numbering_all_snoc. cbn [dr_ok set_seq gx_seq gx_batches]. rewrite A2. f_equal.
      unfold rec_numbering. cbn [dr_seq dr_segs]. apply put_all_concat.
    + (* AJournalFail *)
      apply (held_upd1 _ _ _ _ _ _ _ _ _ HA Hi); [rewrite Hp; reflexivity | reflexivity | |];
        cbn [dmem djl]; rewrite numbering_all_snoc; cbn [dr_ok]; rewrite app_nil_r; [|intros HQ; exact HQ].
      intros l0 wl0 Hn0 _ _ HP0. unfold getg in *. cbn [dgs]. rewrite nth_upd_other_d by auto. exact HP0.
    + (* AApply *)
      apply (held_leader isapply s l w _ _ isapply_holds Hv Hi (holds_pc _ _ Hp eq_refl) HA).
      rewrite Hp. cbn [pc set_pc isapply dmem djl]. intros A1. exact A1.
  - assert (El : nth_error (upd (ws s) i w') l = Some wl) by (rewrite nth_upd_other by exact Hn; exact Hl).
    eapply (held_upd1 isapply _ l wl wl');
      [ apply (held_upd1 _ _ _ _ w' _ _ _ _ HA Hi);
        [ destruct Hm; rewrite Hp; reflexivity | destruct Hm; reflexivity
        | intros ? ? ? ? ? HP0; exact HP0 | intros HQ; exact HQ ]
      | exact El | destruct Hm; rewrite Hpl; reflexivity
      | destruct Hm; cbn [pc set_pc]; unfold merge_decide; split_if; reflexivity | | ];
      destruct Hm; dsimp; split_if; try (intros ? ? ? ? ? HP0; exact HP0); try (intros HQ; exact HQ).
    intros l0 wl0 Hn0 _ _ HP0. cbn [dmem djl with_g]. rewrite getg_with_other by exact Hn0. exact HP0.
Qed.

Lemma xstep_S x a x' : inv (xb x) -> Ginv (ws (xb x)) (dgs (xd x)) ->
  Sinv (ws (xb x)) (xd x) -> xstep mp v_real rq x a = Some x' -> Sinv (ws (xb x')) (xd x').
Proof.
  intros Hv HG HS H. destruct a as [a|q].
  2:{ apply xstep_txn in H. destruct H as (-> & Hg & Hj & Hm & Hq & Hle & _). destruct HS as (S0 & S1 & S2).
      unfold Sinv, getg. rewrite Hg, Hj, Hq. split; auto. split.
      - intros l wl Hl Hp. specialize (S1 l wl Hl Hp). unfold getg in S1. lia.
      - intros Hall. specialize (S2 Hall). lia. }
  apply xstep_base in H. destruct H as (H & Hd & _). rewrite Hd. clear Hd. destruct x as [s d]. cbn [xb xd] in *.
  destruct HG as [Hlen _]. rewrite Sinv_held in *. destruct HS as [S0 HS].
  destruct (step_shape _ _ _ _ H) as [He | i w w' t Hi Hm -> | i l w wl w' wl' t Hn Hi Hl Hm ->]; cbn [ws with_ws].
  - destruct He; exact (conj S0 HS).
  - destruct Hm; dsimp;
      try (split; [exact S0|]; apply (held_upd1 _ _ _ _ _ _ _ _ _ HS Hi);
           [ rewrite Hp; reflexivity | cbn [pc set_pc]; split_if; reflexivity
           | intros ? ? ? ? ? HP0; exact HP0 | intros HQ; exact HQ ]).
    + (* AFlushOk *)
      split; [exact S0|].
      apply (held_upd1 _ _ _ _ _ _ _ _ _ HS Hi); [rewrite Hp; reflexivity | destruct (wmerge w); reflexivity | | intros HQ; exact HQ].
      intros l0 wl0 Hn0 _ _ HP0. rewrite getg_with_other by exact Hn0. exact HP0.
    + (* AJournalOk: nobody was between journal and publish, so the record starts beyond all earlier ones *)
      pose proof (held_now pendp s l w _ _ pendp_holds Hv Hi (holds_pc _ _ Hp eq_refl) HS) as S2.
      rewrite Hp in S2. cbn [pendp] in S2.
      split; [apply jsorted_snoc; [exact S0 | cbn [dr_seq]; lia]|].
      apply (held_leader pendp s l w _ _ pendp_holds Hv Hi (holds_pc _ _ Hp eq_refl) HS).
      cbn [pc set_pc pendp]. intros _.
      unfold getg. cbn [dgs dseq djl]. rewrite nth_upd_same_d by (rewrite Hlen; eapply ListLemmas.nth_error_Some_lt; eauto).
      rewrite jend_snoc. cbn [dr_seq set_seq gx_batches]. unfold rec_count. cbn [dr_segs].
      rewrite batches_len_concat. lia.
    + (* AJournalFail: the failed record consumes its sequence numbers *)
      pose proof (held_now pendp s l w _ _ pendp_holds Hv Hi (holds_pc _ _ Hp eq_refl) HS) as S2.
      rewrite Hp in S2. cbn [pendp] in S2.
      split; [apply jsorted_snoc; [exact S0 | cbn [dr_seq]; lia]|].
      apply (held_leader pendp s l w _ _ pendp_holds Hv Hi (holds_pc _ _ Hp eq_refl) HS).
      cbn [pc set_pc pendp]. intros _.
      cbn [dseq djl v_real v_consume]. rewrite jend_snoc. cbn [dr_seq]. unfold rec_count. cbn [dr_segs].
      rewrite batches_len_concat. lia.
    + (* AApply *)
      split; [exact S0|].
      apply (held_leader pendp s l w _ _ pendp_holds Hv Hi (holds_pc _ _ Hp eq_refl) HS).
      rewrite Hp. cbn [pc set_pc pendp]. intros S1. exact S1.
    + (* APublish *)
      split; [exact S0|].
      apply (held_leader pendp s l w _ _ pendp_holds Hv Hi (holds_pc _ _ Hp eq_refl) HS).
      rewrite Hp. cbn [pc set_pc pendp dseq djl]. intros S1. lia.
  - assert (El : nth_error (upd (ws s) i w') l = Some wl) by (rewrite nth_upd_other by exact Hn; exact Hl).
    split; [destruct Hm; dsimp; split_if; exact S0|].
    eapply (held_upd1 pendp _ l wl wl');
      [ apply (held_upd1 _ _ _ _ w' _ _ _ _ HS Hi);
        [ destruct Hm; rewrite Hp; reflexivity | destruct Hm; reflexivity
        | intros ? ? ? ? ? HP0; exact HP0 | intros HQ; exact HQ ]
      | exact El | destruct Hm; rewrite Hpl; reflexivity
      | destruct Hm; cbn [pc set_pc]; unfold merge_decide; split_if; reflexivity | | ];
      destruct Hm; dsimp; split_if; try (intros ? ? ? ? ? HP0; exact HP0); try (intros HQ; exact HQ).
    intros l0 wl0 Hn0 _ _ HP0. cbn [dseq djl with_g]. rewrite getg_with_other by exact Hn0. exact HP0.
Qed.

Definition syncof (l : list nat) : bool := existsb (fun i => rq_sync (rq i)) l.

Record rec_group (r : drec) (j : jrecd) : Prop := {
  rg_leader : dr_leader r = j_leader j;
  rg_ok : dr_ok r = j_ok j;
  rg_put : filter putid (rec_ids r) = filter putid (j_batches j);
  rg_bat : filter nputid (rec_ids r) = filter nputid (j_batches j);
  rg_hd : hd_error (rec_ids r) = hd_error (j_batches j);
  rg_sync : dr_sync r = syncof (j_batches j);
  rg_nrec : Forall (fun sg : seg => snd sg = req_nrec (rq (fst sg))) (dr_segs r)
}.

(* every record of the data log is its group of the base log *)
Definition Jinv (x : xstate) : Prop := Forall2 rec_group (djl (xd x)) (jlog (xb x)).

Lemma gok_rec_group wl c g ok l q jr : gok wl c g ->
  rec_group {| dr_ok := ok; dr_leader := l; dr_seq := q; dr_segs := concat (gx_batches g); dr_sync := gx_sync g |}
            {| j_ok := ok; j_leader := l; j_batches := lbatches c; j_replied := jr |}.
Proof.
  intros [H1 H2 H3 H4 H5 H6 H7 H8 H9]. constructor; cbn [dr_leader dr_ok rec_ids dr_segs dr_sync j_leader j_ok j_batches]; auto.
  destruct H9 as (h & n & b & bs & t & Hb & Hl). rewrite Hb, Hl. reflexivity.
Qed.

Lemma xstep_J x a x' : Ginv (ws (xb x)) (dgs (xd x)) -> Jinv x -> xstep mp v_real rq x a = Some x' -> Jinv x'.
Proof.
  intros HG HJ H. unfold Jinv in *. destruct a as [a|q].
  2:{ apply xstep_txn in H. destruct H as (-> & _ & -> & _). exact HJ. }
  apply xstep_base in H. destruct H as (H & Hd & _). rewrite Hd. clear Hd. destruct x as [s d]. cbn [xb xd] in *.
  destruct (step_shape _ _ _ _ H) as [He | i w w' t Hi Hm -> | i l w wl w' wl' t Hn Hi Hl Hm ->].
  - destruct He; exact HJ.
  - destruct Hm; dsimp; cbn [jlog with_ws with_logs with_lock]; try exact HJ;
      (apply Forall2_app; [exact HJ | constructor; [|constructor]]); apply (gok_rec_group w);
      apply (proj2 HG l w c Hi); rewrite Hp; reflexivity.
  - destruct Hm; dsimp; split_if; exact HJ.
Qed.

Record XI (x : xstate) : Prop := {
  xi_inv : inv (xb x);
  xi_P2 : P2 (ws (xb x));
  xi_jok : Forall jok (jlog (xb x));
  xi_M : Minv (ws (xb x));
  xi_O : Oinv (ws (xb x));
  xi_G : Ginv (ws (xb x)) (dgs (xd x));
  xi_N : Ninv (ws (xb x)) (jids (djl (xd x)));
  xi_L : Linv (ws (xb x)) (djl (xd x));
  xi_R : Rinv (ws (xb x)) (djl (xd x));
  xi_A : Ainv (ws (xb x)) (xd x);
  xi_S : Sinv (ws (xb x)) (xd x);
  xi_J : Jinv x
}.

Lemma idle_nth n i w : nth_error (repeat idle_writer n) i = Some w -> w = idle_writer.
Proof. intros H. apply nth_error_In in H. apply repeat_spec in H. exact H. Qed.

Lemma XI_init n q0 : XI (xinit n q0).
Proof.
  constructor; cbn [xinit xb xd init ws jlog dgs djl dmem dseq].
  - apply inv_init.
  - apply P2_init.
  - constructor.
  - intros i w Hi Hp. apply idle_nth in Hi. subst. discriminate.
  - intros l wl c x Hl Hc. apply idle_nth in Hl. subst. discriminate.
  - split; [rewrite !repeat_length; reflexivity|]. intros l wl c Hl Hc. apply idle_nth in Hl. subst. discriminate.
  - constructor.
    + constructor.
    + intros l wl cl Hl Hc. apply idle_nth in Hl. subst. discriminate.
    + intros i [[]|(l & wl & cl & Hl & Hc & _)]. apply idle_nth in Hl. subst. discriminate.
  - intros l wl c Hl Hc. apply idle_nth in Hl. subst. discriminate.
  - intros i w Hi Hp. apply idle_nth in Hi. subst. discriminate.
  - split; [|reflexivity]. intros l wl Hl Hp. apply idle_nth in Hl. subst. discriminate.
  - split; [exact I|]. split; [|intros _; simpl; lia]. intros l wl Hl Hp. apply idle_nth in Hl. subst. discriminate.
  - constructor.
Qed.

Lemma xstep_XI x a x' : XI x -> xstep mp v_real rq x a = Some x' -> XI x'.
Proof.
  intros [H1 H2 H3 H4 H5 H6 H7 H8 H9 H10 H11 H12] H.
  assert (Hb : inv (xb x') /\ P2 (ws (xb x')) /\ Forall jok (jlog (xb x')) /\ Minv (ws (xb x')) /\ Oinv (ws (xb x'))).
  { destruct a as [a|q].
    - destruct (xstep_base _ _ _ _ _ _ H) as (Hs & _ & _).
      destruct (step_P2 mp _ _ _ H1 H2 H3 Hs). split; [|split; [|split; [|split]]]; auto.
      + eapply step_inv; eauto.
      + eapply step_M; eauto.
      + eapply step_O; eauto.
    - destruct (xstep_txn _ _ _ _ _ _ H) as (-> & _). auto. }
  destruct Hb as (B1 & B2 & B3 & B4 & B5).
  constructor; auto.
  - exact (xstep_G x a x' H6 H).
  - exact (xstep_N x a x' H1 H2 H6 H7 H).
  - exact (xstep_L x a x' H2 H6 H8 H).
  - exact (xstep_R x a x' H1 H4 H8 H9 H).
  - exact (xstep_A x a x' H1 H6 H10 H).
  - exact (xstep_S x a x' H1 H6 H11 H).
  - exact (xstep_J x a x' H6 H12 H).
Qed.

Lemma xrun_XI l : forall x x', XI x -> xrun mp v_real rq x l = Some x' -> XI x'.
Proof.
  induction l as [|a l IH]; simpl; intros x x' HX H.
  - inversion H; subst; auto.
  - destruct (xstep mp v_real rq x a) as [x1|] eqn:E; [|discriminate]. apply (IH x1 x'); auto. exact (xstep_XI x a x1 HX E).
Qed.

Lemma xreachable_XI n q0 x : xreachable mp v_real rq n q0 x -> XI x.
Proof. intros [l H]. exact (xrun_XI l _ _ (XI_init n q0) H). Qed.

End Data.
