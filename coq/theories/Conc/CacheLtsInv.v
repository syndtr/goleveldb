(* Conc/CacheLtsInv.v — the invariant of the interleaved semantics (Conc/CacheLts.v) for the OPEN cache:
   every state reachable by any interleaving of Get/Release/Delete/Evict/EvictNS/EvictAll/SetCapacity
   actions of any number of goroutines — at the granularity "one critical section or atomic instruction
   per action", in particular with the decrement of a reference count and its zero-check as separate
   actions — satisfies the structural, reference-census, value and delFunc invariants of
   Conc/CacheInv.v, with  p = references held by pending instructions  and  zq = nodes whose zero-check
   is pending.  Close is not an action here (Conc/CacheLtsClose.v adds Close(false)).
   Proof file. *)
From GL Require Import Conc.Cache Conc.CacheLemmas Conc.CacheInv Conc.CacheProofs Conc.CacheTheorems Conc.CacheLts.
From GL Require Mem.ListLemmas.
From Coq Require Import Lia.

Definition pendf (l : list (N * thread)) : N -> Z := fun x => pend_ref x l.

Lemma instr_ref_nonneg x i : (0 <= instr_ref x i)%Z.
Proof. destruct i; cbn [instr_ref]; try lia. all: destruct (x0 =? x)%N. all: lia. Qed.
Lemma code_ref_cons x i k : code_ref x (i :: k) = (instr_ref x i + code_ref x k)%Z.
Proof. reflexivity. Qed.
Lemma pend_ref_cons x p l : pend_ref x (p :: l) = (code_ref x (t_code (snd p)) + pend_ref x l)%Z.
Proof. reflexivity. Qed.
Lemma code_ref_nonneg x k : (0 <= code_ref x k)%Z.
Proof. induction k as [|i k IH]; [cbn; lia|]. rewrite code_ref_cons. pose proof (instr_ref_nonneg x i). lia. Qed.
Lemma pend_ref_nonneg x l : (0 <= pend_ref x l)%Z.
Proof. induction l as [|p l IH]; [cbn; lia|]. rewrite pend_ref_cons. pose proof (code_ref_nonneg x (t_code (snd p))). lia. Qed.

Lemma code_ref_app x a b : code_ref x (a ++ b) = (code_ref x a + code_ref x b)%Z.
Proof. induction a as [|i a IH]; [change (code_ref x b = (0 + code_ref x b)%Z); lia|]. cbn [app]. rewrite !code_ref_cons, IH. lia. Qed.

Lemma code_ref_decs x ext ev : code_ref x (decs ext ev) = Z.of_nat (count_occ N.eq_dec ev x).
Proof.
  induction ev as [|y ev IH]; [reflexivity|].
  change (decs ext (y :: ev)) with (IDec y ext :: decs ext ev). rewrite code_ref_cons, IH.
  cbn [instr_ref count_occ]. destruct (N.eq_dec y x) as [->|ne].
  - rewrite N.eqb_refl. lia.
  - apply N.eqb_neq in ne. rewrite ne. lia.
Qed.

Definition others (t : N) (l : list (N * thread)) : list (N * thread) := filter (fun p => negb (fst p =? t)) l.

Lemma pend_ref_others x t l : NoDup (map fst l) ->
  pend_ref x l = (code_ref x (t_code (get_thr t l)) + pend_ref x (others t l))%Z.
Proof.
  unfold get_thr, others. induction l as [|p l IH]; intro Hnd; [reflexivity|].
  cbn [map] in Hnd. inversion Hnd as [|? ? Hnot Hnd']; subst. cbn [find filter].
  destruct (N.eqb_spec (fst p) t) as [e|ne]; cbn [negb].
  - assert (filter (fun q => negb (fst q =? t)) l = l) as ->.
    { apply ListLemmas.filter_all. intros q Hq. apply negb_true_iff, N.eqb_neq. intro e'. apply Hnot. rewrite e, <- e'. now apply in_map. }
    rewrite pend_ref_cons. reflexivity.
  - rewrite !pend_ref_cons, IH by exact Hnd'. lia.
Qed.

Lemma pend_ref_set x t th l : pend_ref x (set_thr t th l) = (code_ref x (t_code th) + pend_ref x (others t l))%Z.
Proof. reflexivity. Qed.

Lemma nodup_set t th l : NoDup (map fst l) -> NoDup (map fst (set_thr t th l)).
Proof.
  intro H. unfold set_thr. cbn. constructor.
  - intro Hin. apply in_map_iff in Hin. destruct Hin as (q & e & Hq). apply filter_In in Hq. destruct Hq as [_ Hq].
    apply negb_true_iff, N.eqb_neq in Hq. congruence.
  - now apply ListLemmas.NoDup_map_filter.
Qed.

Definition code_zero (x : N) (k : list instr) : bool := existsb (is_zero x) k.

Lemma zero_pending_others x t l : NoDup (map fst l) ->
  zero_pending l x = code_zero x (t_code (get_thr t l)) || zero_pending (others t l) x.
Proof.
  unfold zero_pending, get_thr, others, code_zero. induction l as [|p l IH]; cbn; intro Hnd; [reflexivity|].
  inversion Hnd as [|? ? Hnot Hnd']; subst. destruct (N.eqb_spec (fst p) t) as [e|ne]; cbn.
  - assert (filter (fun q => negb (fst q =? t)) l = l) as ->.
    { apply ListLemmas.filter_all. intros q Hq. apply negb_true_iff, N.eqb_neq. intro e'. apply Hnot. rewrite e, <- e'. now apply in_map. }
    reflexivity.
  - rewrite IH by exact Hnd'. rewrite !orb_assoc. f_equal. apply orb_comm.
Qed.

Lemma zero_pending_set x t th l : zero_pending (set_thr t th l) x = code_zero x (t_code th) || zero_pending (others t l) x.
Proof. reflexivity. Qed.

Lemma code_zero_app x a b : code_zero x (a ++ b) = code_zero x a || code_zero x b.
Proof. unfold code_zero. apply existsb_app. Qed.

Lemma code_zero_decs x ext ev : code_zero x (decs ext ev) = false.
Proof. unfold code_zero, decs. induction ev; cbn; auto. Qed.

Lemma get_thr_in t l p : In p (others t l) -> In p l /\ fst p <> t.
Proof. unfold others. intro H. apply filter_In in H. destruct H as [A B]. apply negb_true_iff, N.eqb_neq in B. auto. Qed.

Lemma in_set_thr t th l p : In p (set_thr t th l) <-> p = (t, th) \/ In p (others t l).
Proof. unfold set_thr. cbn. split; intros [H|H]; auto. Qed.

Lemma get_thr_code_in t l : t_code (get_thr t l) <> [] -> In (t, get_thr t l) l.
Proof.
  unfold get_thr. intros H. destruct (find (fun p => fst p =? t) l) as [p|] eqn:F; [|cbn in H; congruence].
  apply find_some in F. destruct F as [Hin e]. apply N.eqb_eq in e. destruct p; cbn in *. subst. exact Hin.
Qed.

Lemma Inv_zq_weaken zq zq' p s : (forall y, zq y = true -> zq' y = true) -> Inv zq p s -> Inv zq' p s.
Proof. intros W [A B C D]. split; auto. unfold InvR in *. eapply RInv_zq_weaken; eauto. Qed.

Lemma Inv_zq_ext zq zq' p s : (forall y, zq y = zq' y) -> Inv zq p s -> Inv zq' p s.
Proof. intros E. apply Inv_zq_weaken. intros y Hy. now rewrite <- E. Qed.

(* a node whose zero-check is no longer pending may leave zq when its count is positive again *)
Lemma Inv_zq_drop zq zr p s x :
  (forall y, zq y = zr y || (y =? x)) -> (forall n, In n (s_nodes s) -> n_id n = x -> zr x = false -> (0 < n_ref n)%Z) ->
  Inv zq p s -> Inv zr p s.
Proof.
  intros E Hx [A B C D]. split; auto. unfold InvR in *. destruct B as [P PD R PO FC HN HF HO HV ST S0]. split; auto.
  intros Hf n Hn Hq Hz. destruct (N.eq_dec (n_id n) x) as [e|ne].
  - apply Hx; auto. now rewrite <- e.
  - apply PO; auto. rewrite E, Hz. apply N.eqb_neq in ne. now rewrite ne.
Qed.

Definition valued (s : state) (x : N) : Prop := exists n, In n (s_nodes s) /\ n_id n = x /\ n_val n <> None.

(* IDelReg / IBan are followed by the [IDec x false] that gives back the reference mBucket.get took: the goroutine
   still owns a reference to x while they run, which is where the step lemmas get 1 <= q x from *)
Definition instr_ok (s : state) (i : instr) (rest : list instr) : Prop :=
  match i with
  | IPromote x | IHandle x => valued s x
  | IZero x ns key _ => x < s_next_nid s /\ forall n, In n (s_nodes s) -> n_id n = x -> n_ns n = ns /\ n_key n = key
  | IDelReg x | IBan x => In (IDec x false) rest
  | _ => True
  end.

Fixpoint code_ok (s : state) (k : list instr) : Prop :=
  match k with [] => True | i :: k' => instr_ok s i k' /\ code_ok s k' end.

Fixpoint prefix_ok (s : state) (new k : list instr) : Prop :=
  match new with [] => True | i :: n' => instr_ok s i (n' ++ k) /\ prefix_ok s n' k end.

Lemma code_ok_app s new k : prefix_ok s new k -> code_ok s k -> code_ok s (new ++ k).
Proof. induction new as [|i n IH]; cbn; auto. intros [A B] C. split; auto. Qed.

Lemma prefix_ok_decs s ext ev k : prefix_ok s (decs ext ev) k.
Proof. induction ev; cbn; auto. Qed.

Lemma code_ref_in_dec x k : In (IDec x false) k -> (1 <= code_ref x k)%Z.
Proof.
  induction k as [|i k IH]; [intros []|]. intros [->|H]; rewrite code_ref_cons.
  - cbn [instr_ref]. rewrite N.eqb_refl. pose proof (code_ref_nonneg x k). lia.
  - pose proof (instr_ref_nonneg x i). specialize (IH H). lia.
Qed.

(* the instructions other goroutines still hold stay well-formed across a step *)
Lemma code_ok_transfer zq p s s' k :
  Inv zq p s -> Ext s s' -> s_closed s' = false ->
  (forall x, valued s x -> (exists n', In n' (s_nodes s') /\ n_id n' = x) -> valued s' x) ->
  code_ok s k -> (forall x, (0 < code_ref x k)%Z -> exists n', In n' (s_nodes s') /\ n_id n' = x) ->
  code_ok s' k.
Proof.
  intros H (E1 & E2 & E3) Hc Hv. pose proof (inv_s _ _ _ H) as HS. unfold InvS in HS.
  induction k as [|i k IH]; cbn [code_ok]; auto. intros [Hi Hk] Hex. split.
  - destruct i; cbn [instr_ok] in *; auto.
    + apply Hv; auto. apply Hex. rewrite code_ref_cons. cbn [instr_ref]. rewrite N.eqb_refl. pose proof (code_ref_nonneg x k). lia.
    + apply Hv; auto. apply Hex. rewrite code_ref_cons. cbn [instr_ref]. rewrite N.eqb_refl. pose proof (code_ref_nonneg x k). lia.
    + destruct Hi as [Hlt Hkey]. split; [lia|]. intros n' Hn' Hx'.
      destruct (E3 n' Hn') as (m & Hm & i' & kk & _); [lia|]. unfold keyof in kk. inversion kk.
      destruct (Hkey m Hm) as [a b]; [congruence|]. split; congruence.
  - apply IH; auto. intros y Hy. apply Hex. rewrite code_ref_cons. pose proof (instr_ref_nonneg y i). lia.
Qed.

Lemma valued_ext zq p s s' x :
  Inv zq p s -> Ext s s' -> s_closed s' = false -> valued s x ->
  (exists n', In n' (s_nodes s') /\ n_id n' = x) -> valued s' x.
Proof.
  intros H (E1 & E2 & E3) Hc (n & Hn & Hx & Hv) (n' & Hn' & Hx'). pose proof (inv_s _ _ _ H) as HS. unfold InvS in HS.
  destruct (E3 n' Hn') as (m & Hm & i & _ & _ & v).
  { rewrite Hx', <- Hx. apply (si_fresh _ _ _ _ HS n Hn). }
  assert (m = n) as -> by (eapply same_id_eq; eauto; [apply (si_ids _ _ _ _ HS)|congruence]).
  exists n'. split; auto. split; auto. destruct (v Hv) as [e|e]; congruence.
Qed.

Lemma code_ok_step zq p s s' k :
  Inv zq p s -> Ext s s' -> s_closed s' = false -> code_ok s k ->
  (forall x, (0 < code_ref x k)%Z -> exists n', In n' (s_nodes s') /\ n_id n' = x) -> code_ok s' k.
Proof.
  intros H E Hc Hk Hex. eapply code_ok_transfer; eauto. intros x Hv Hx. eapply valued_ext; eauto.
Qed.

(* the atomic decrement that returns 0: the zero-check of x becomes pending; IZero carries the key
   under which Cache.delete will look the node up again *)
Lemma dec_zero_ok zr p s x n :
  Inv zr (padd x 1 p) s -> (0 <= p x)%Z -> In n (s_nodes s) -> n_id n = x -> (n_ref n - 1)%Z = 0%Z ->
  Inv (fun y => (y =? x) || zr y) p (upd_node x (nd_ref (n_ref n - 1)%Z) s) /\
  forall ext, instr_ok (upd_node x (nd_ref (n_ref n - 1)%Z) s) (IZero x (n_ns n) (n_key n) ext) [].
Proof.
  intros H Hpx Hn Hx e. split.
  - apply (Inv_upd _ (padd x 1 p) p s x _ n); auto with cache.
    + eapply Inv_zq_weaken; [|exact H]. intros y Hy. cbv beta. rewrite Hy. apply orb_true_r.
    + apply (p_nonneg_of_padd x); auto. apply (Inv_p_nonneg _ _ _ H).
    + intros y ne. now rewrite padd_other.
    + intros _ (E & P & V & Z). rewrite Hx, padd_same in E.
      split; [cbn; change (rcount (nd_ref (n_ref n - 1) n)) with (rcount n); rewrite Hx; lia|].
      split; [intros _ Hz; cbn in Hz; rewrite Hx, N.eqb_refl in Hz; discriminate|split; [exact V|exact Z]].
  - intro ext. cbn. unfold upd_node. sred. split.
    + rewrite <- Hx. apply (si_fresh _ _ _ _ (inv_s _ _ _ H) n Hn).
    + intros m Hm Hmx. destruct (in_upd_cases _ _ _ _ _ (Inv_ids _ _ _ H) Hn Hx Hm) as [->|[_ ne]]; [auto|tauto].
Qed.

Section Step.
  Variable zr : N -> bool.      (* zero-checks pending elsewhere (other goroutines, rest of this code) *)
  Variable q : N -> Z.          (* references held elsewhere *)
  Hypothesis Hq : forall y, (0 <= q y)%Z.

  (* c: whether the cache is closed (by Close(false): it is never force-closed here) *)
  Definition post (c : bool) (g' : state) (new : list instr) : Prop :=
    Inv (fun y => code_zero y new || zr y) (fun y => (q y + code_ref y new)%Z) g' /\ CapOk g' /\
    s_closed g' = c /\ s_forced g' = false.

  Lemma post_intro c g' new p' :
    (forall y, code_zero y new = false) -> Inv zr p' g' -> (forall y, p' y = (q y + code_ref y new)%Z) ->
    CapOk g' -> s_closed g' = c -> s_forced g' = false -> post c g' new.
  Proof.
    intros Z H E C O F. split; [|split; [|split]]; auto. eapply Inv_zq_ext; [|eapply Inv_pext; [exact E|exact H]].
    intro y. now rewrite Z.
  Qed.

  Lemma post_open g' new p' :
    (forall y, code_zero y new = false) -> Inv zr p' g' -> (forall y, p' y = (q y + code_ref y new)%Z) ->
    CapOk g' -> s_closed g' = false -> post false g' new.
  Proof. intros Z H E C O. eapply post_intro; eauto. eapply forced_false_of_open; eauto. Qed.

  Lemma step_node g x sf g' new k :
    Inv zr (fun y => (q y + instr_ref y (INode x sf))%Z) g -> CapOk g -> s_closed g = false ->
    exec (INode x sf) g = (g', new) ->
    post false g' new /\ Ext g g' /\ prefix_ok g' new k.
  Proof.
    intros H Hcap Hc E.
    destruct (node_of_pend _ _ _ x H) as (n & Hn & Hx). { cbn [instr_ref]. rewrite N.eqb_refl. specialize (Hq x). lia. }
    pose proof (inv_s _ _ _ H) as HS. unfold InvS in HS.
    cbn [exec] in E. rewrite <- Hx, (find_id_in _ n (si_ids _ _ _ _ HS) Hn), Hx in E.
    assert (forall z, valued z x -> prefix_ok z (if s_cacher g then [IPromote x] else [IHandle x]) k) as PO.
    { intros z Hv. destruct (s_cacher g); cbn; auto. }
    assert (forall y, code_zero y (if s_cacher g then [IPromote x] else [IHandle x]) = false) as ZF
      by (intro y; destruct (s_cacher g); reflexivity).
    assert (forall y, (q y + instr_ref y (INode x sf))%Z = (q y + code_ref y (if s_cacher g then [IPromote x] else [IHandle x]))%Z) as RF.
    { intro y. destruct (s_cacher g); cbn; lia. }
    destruct (n_val n) as [v|] eqn:V.
    - inversion E; subst g' new. split; [|split].
      + eapply post_open; eauto.
      + apply ExtN_refl.
      + apply PO. exists n. split; auto. split; auto. congruence.
    - destruct sf as [|sz [|]]; inversion E; subst g' new; clear E.
      + split; [|split; [apply ExtN_refl|cbn; auto]].
        eapply post_open; eauto. intro y. cbn. lia.
      + destruct (construct_ok _ _ g x n sz H Hc Hn Hx V) as (A & A'). cbv zeta in A, A'.
        split; [|split; [exact A'|]].
        * eapply post_open; eauto.
        * apply PO. exists (nd_val (Some (s_next_vid g)) sz n). split; [unfold upd_node; sred; apply in_upd_same; auto|].
          split; [exact Hx|cbn; discriminate].
      + destruct (setnil_ok _ _ g x n H Hc Hn Hx V) as (A & A'). cbv zeta in A, A'.
        split; [|split; [exact A'|cbn; auto]].
        eapply post_open; eauto. intro y. cbn. lia.
  Qed.

  Lemma padds_code y ev p : padds ev p y = (p y + code_ref y (decs true ev))%Z.
  Proof. unfold padds. now rewrite code_ref_decs. Qed.

  Lemma step_promote g x g' new k :
    Inv zr (fun y => (q y + instr_ref y (IPromote x))%Z) g -> CapOk g -> s_closed g = false -> valued g x ->
    exec (IPromote x) g = (g', new) ->
    post false g' new /\ Ext g g' /\ (forall z, valued z x -> prefix_ok z new k).
  Proof.
    intros H Hcap Hc (n & Hn & Hx & Hv) E.
    pose proof (forced_false_of_open _ _ _ H Hc) as Hfo.
    pose proof H as [HS HR HL HP]. unfold InvS, InvR, InvL in *.
    assert (forall ev z, valued z x -> prefix_ok z (decs true ev ++ [IHandle x]) k) as PO.
    { intros ev z Hz. induction ev; cbn; auto. }
    cbn [exec] in E. unfold promote_locked in E.
    rewrite <- Hx, (find_id_in _ n (si_ids _ _ _ _ HS) Hn), Hx in E.
    destruct (n_lru n) eqn:L.
    - destruct (n_size n <=? s_cap g) eqn:Csz.
      + pose proof (ri_ref _ _ _ _ _ _ _ _ _ HR Hfo n Hn) as Er. rewrite Hx in Er. cbn [instr_ref] in Er. rewrite N.eqb_refl in Er.
        pose proof (hcount_nonneg x (s_handles g)). pose proof (rcount_nonneg n). pose proof (Hq x).
        assert (n_ref n + 1 <=? 1 = false)%Z as Eq1 by (apply Z.leb_gt; lia). rewrite Eq1 in E.
        match type of E with context [run_evict_loop ?z] => change z with (promote_link x n g) in E end.
        unfold run_evict_loop in E.
        destruct (evict_loop (s_order (promote_link x n g)) (promote_link x n g)) as [s3 ev] eqn:E3.
        injection E as <- <-.
        destruct (promote_link_ok _ _ g x n H Hc Hn Hx Hv L) as [HP2 X2].
        destruct (evict_loop_ok _ _ _ _ _ _ HP2 eq_refl E3) as (A & B & D & X).
        split; [|split; [eapply Ext_trans; eauto|apply PO]].
        eapply post_open; [| exact A | | exact B |].
        * intro y. rewrite code_zero_app, code_zero_decs. reflexivity.
        * intro y. rewrite padds_code, code_ref_app. cbn [instr_ref code_ref fold_right]. lia.
        * destruct D as (_ & e & _). unfold promote_link, upd_node in e. sred. congruence.
      + injection E as <- <-. split; [|split; [apply ExtN_refl|apply (PO [])]].
        eapply post_open; eauto. intro y. cbn. lia.
    - injection E as <- <-.
      split; [|split; [unfold Ext, order_remove; destruct (in_order x (s_order g)); sred; apply ExtN_refl|apply (PO [])]].
      eapply post_open; [reflexivity|eapply touch_ok; eauto| | |].
      + intro y. cbn. lia.
      + unfold CapOk, order_remove in *. destruct (in_order x (s_order g)); sred; exact Hcap.
      + unfold order_remove. destruct (in_order x (s_order g)); sred; exact Hc.
    - injection E as <- <-. split; [|split; [apply ExtN_refl|apply (PO [])]].
      eapply post_open; eauto. intro y. cbn. lia.
  Qed.

  Lemma step_handle g x g' new :
    Inv zr (fun y => (q y + instr_ref y (IHandle x))%Z) g -> CapOk g -> s_closed g = false -> valued g x ->
    exec (IHandle x) g = (g', new) ->
    post false g' new /\ Ext g g' /\ new = [].
  Proof.
    intros H Hcap Hc (n & Hn & Hx & Hv) E.
    pose proof H as [HS HR HL HP]. unfold InvS, InvR, InvL in *.
    cbn [exec] in E. rewrite <- Hx, (find_id_in _ n (si_ids _ _ _ _ HS) Hn), Hx in E.
    destruct (n_val n) as [v|] eqn:V; [|congruence]. injection E as <- <-.
    split; [|split; [unfold Ext; sred; apply ExtN_refl|reflexivity]].
    eapply post_open; [reflexivity| | | exact Hcap | exact Hc].
    - split; unfold InvS, InvR, InvL; sred; eauto.
      eapply (RInv_hadd _ _ _ _ _ _ _ _ _ x n); eauto.
      + cbn [instr_ref]. rewrite N.eqb_refl. specialize (Hq x). lia.
      + intros _. congruence.
      + apply (si_ids _ _ _ _ HS).
    - intro y. unfold padd. cbn [instr_ref code_ref fold_right]. rewrite (N.eqb_sym y x). destruct (x =? y); lia.
  Qed.

  (* IDec: the atomic decrement; when it returns 0 the zero-check becomes pending *)
  Lemma step_dec g x ext g' new k :
    Inv zr (fun y => (q y + instr_ref y (IDec x ext))%Z) g -> CapOk g -> s_forced g = false ->
    exec (IDec x ext) g = (g', new) ->
    post (s_closed g) g' new /\ Ext g g' /\ prefix_ok g' new k.
  Proof.
    intros H Hcap Hfo E.
    destruct (node_of_pend _ _ _ x H) as (n & Hn & Hx). { cbn [instr_ref]. rewrite N.eqb_refl. specialize (Hq x). lia. }
    pose proof H as [HS HR HL HP]. unfold InvS, InvR, InvL in *.
    cbn [exec] in E. rewrite <- Hx, (find_id_in _ n (si_ids _ _ _ _ HS) Hn), Hx in E.
    assert (Inv zr (padd x 1 q) g) as H1.
    { eapply Inv_pext; [|exact H]. intro y. unfold padd. cbn [instr_ref]. rewrite (N.eqb_sym y x). destruct (x =? y); lia. }
    destruct (Z.eqb_spec (n_ref n - 1) 0) as [e|ne]; injection E as <- <-.
    - destruct (dec_zero_ok zr q g x n H1 (Hq x) Hn Hx e) as [A K].
      split; [|split; [apply ref_upd_ext|split; [apply (K ext)|exact I]]].
      split; [|split; [|split]]; [|exact Hcap|reflexivity|exact Hfo].
      eapply Inv_zq_ext; [|eapply Inv_pext; [|exact A]]; intro y; cbn; [now rewrite orb_false_r, (N.eqb_sym x y)|lia].
    - split; [|split; [apply ref_upd_ext|cbn; auto]].
      eapply post_intro; [reflexivity|apply dec_ok; eauto| |exact Hcap|reflexivity|exact Hfo].
      intro y. cbn. lia.
  Qed.

  (* removing, under the bucket lock, a node whose count is 0 *)
  Lemma delete_zero_ok zq p g m :
    Inv zq p g -> s_closed g = false -> In m (s_nodes g) -> n_ref m = 0%Z ->
    Inv zq p (cache_delete (n_ns m) (n_key m) g).
  Proof.
    intros H Hc Hm Hr. pose proof (forced_false_of_open _ _ _ H Hc) as Hfo.
    pose proof H as [HS HR HL HP]. unfold InvS, InvR, InvL in *.
    destruct (RInv_ref0 _ _ _ _ _ _ _ _ _ _ HR Hm Hfo Hr) as (H0 & Hres & Hp).
    unfold cache_delete. rewrite (SInv_find_key _ _ _ _ _ HS Hm), Hr. cbn [Z.eqb].
    split; unfold InvS, InvR, InvL; sred; auto.
    - apply SInv_remove; auto.
    - eapply RInv_remove; eauto. apply (si_ids _ _ _ _ HS).
    - apply (LInv_fin (s_nodes g) _ (s_log g) _ _ _ _ m false); auto. apply (si_ids _ _ _ _ HS).
      + intros m' Hm'. apply CacheLemmas.in_remove in Hm'. left. exact Hm'.
      + intros m0 Hm0 ne. apply CacheLemmas.in_remove. auto.
  Qed.

  (* IZero on the open cache: Cache.delete(n): look the key up again, re-check ref == 0 *)
  Lemma step_zero g x ns key ext g' new :
    Inv (fun y => (y =? x) || zr y) q g -> CapOk g -> s_closed g = false ->
    instr_ok g (IZero x ns key ext) [] ->
    exec (IZero x ns key ext) g = (g', new) ->
    (Inv zr q g' /\ CapOk g' /\ s_closed g' = false) /\ Ext g g' /\ new = [].
  Proof.
    intros H Hcap Hc [Hlt Hkey] E. pose proof (forced_false_of_open _ _ _ H Hc) as Hfo.
    pose proof H as [HS HR HL HP]. unfold InvS, InvR, InvL in *.
    cbn [exec] in E. rewrite Hc, andb_false_r in E. injection E as <- <-.
    split; [|split; [apply cache_delete_ext|reflexivity]].
    destruct (cache_delete_same ns key g) as (a1 & a2 & a3 & a4 & _).
    split; [|split; [eapply capok_same; eauto|congruence]].
    assert (Inv (fun y => (y =? x) || zr y) q (cache_delete ns key g) /\
            forall n', In n' (s_nodes (cache_delete ns key g)) -> n_id n' = x -> (0 < n_ref n')%Z) as (A & B).
    { unfold cache_delete at 1 2. destruct (find_key ns key (s_nodes g)) as [m|] eqn:F.
      - destruct (find_key_some _ _ _ _ F) as (Hm & Hns & Hk).
        destruct (Z.eqb_spec (n_ref m) 0) as [e|ne].
        + split.
          * pose proof (delete_zero_ok _ _ g m H Hc Hm e) as D. unfold cache_delete in D.
            rewrite Hns, Hk, F, e in D. exact D.
          * sred. intros n' Hn' Hx'. apply CacheLemmas.in_remove in Hn'. destruct Hn' as [Hn' ne'].
            destruct (Hkey n' Hn' Hx') as [kn kk].
            assert (n' = m).
            { pose proof (SInv_find_key _ _ _ _ _ HS Hn') as Fk. rewrite kn, kk in Fk. congruence. }
            congruence.
        + split; auto. intros n' Hn' Hx'. destruct (Hkey n' Hn' Hx') as [kn kk].
          assert (n' = m).
          { pose proof (SInv_find_key _ _ _ _ _ HS Hn') as Fk. rewrite kn, kk in Fk. congruence. }
          subst n'. pose proof (ri_ref _ _ _ _ _ _ _ _ _ HR Hfo m Hm) as Er.
          pose proof (hcount_nonneg (n_id m) (s_handles g)). pose proof (rcount_nonneg m). specialize (Hq (n_id m)). lia.
      - split; auto. intros n' Hn' Hx'. destruct (Hkey n' Hn' Hx') as [kn kk].
        pose proof (SInv_find_key _ _ _ _ _ HS Hn') as Fk. rewrite kn, kk in Fk. congruence. }
    apply (Inv_zq_drop (fun y => (y =? x) || zr y) zr q (cache_delete ns key g) x);
      [intro y; apply orb_comm|intros n' Hn' Hx' _; apply B; auto|exact A].
    Unshelve. exact zr.
  Qed.

  Lemma step_delreg g x g' new :
    Inv zr (fun y => (q y + instr_ref y (IDelReg x))%Z) g -> CapOk g -> s_closed g = false ->
    (1 <= q x)%Z ->
    exec (IDelReg x) g = (g', new) ->
    post false g' new /\ Ext g g' /\ new = [].
  Proof.
    intros H Hcap Hc Hqx E.
    destruct (node_of_pend _ _ _ x H) as (n & Hn & Hx). { cbn [instr_ref]. lia. }
    pose proof (inv_s _ _ _ H) as HS. unfold InvS in HS.
    cbn [exec] in E. rewrite <- Hx, (find_id_in _ n (si_ids _ _ _ _ HS) Hn), Hx in E. injection E as <- <-.
    destruct (delreg_ok _ _ g x n H Hc Hn Hx) as (A & A'). cbv zeta in A, A'.
    split; [|split; [exact A'|reflexivity]].
    eapply post_open; [reflexivity|exact A| |exact Hcap|exact Hc]. intro y. cbn. lia.
  Qed.

  (* the locked parts of Ban and Evict on a linked node: the lru reference is released by a later IDec *)
  Lemma unlinked g x n l k :
    Inv zr q g -> CapOk g -> s_forced g = false -> In n (s_nodes g) -> n_id n = x -> n_lru n = LResident ->
    l <> LResident ->
    post (s_closed g) (unlink x n l g) (decs true [x]) /\ Ext g (unlink x n l g) /\
    prefix_ok (unlink x n l g) (decs true [x]) k.
  Proof.
    intros H Hcap Hfo Hn Hx L Hl. assert (resident n = true) as Hres by (unfold resident; now rewrite L).
    destruct (unlink_ok _ _ g x n l H Hn Hx Hres Hl) as ((A & (_ & e1 & e2 & _) & B & X) & _).
    split; [|split; [exact X|cbn; auto]].
    eapply post_intro; [reflexivity|exact A| |exact (B Hcap)|exact e1|congruence].
    intro y. unfold padd. cbn [decs map code_ref fold_right instr_ref]. rewrite (N.eqb_sym y x). destruct (x =? y); lia.
  Qed.

  Lemma step_ban g x g' new k :
    Inv zr (fun y => (q y + instr_ref y (IBan x))%Z) g -> CapOk g -> s_closed g = false -> (1 <= q x)%Z ->
    exec (IBan x) g = (g', new) ->
    post false g' new /\ Ext g g' /\ prefix_ok g' new k.
  Proof.
    intros H0 Hcap Hc Hqx E.
    assert (Inv zr q g) as H by (eapply Inv_pext; [|exact H0]; intro y; cbn; lia).
    pose proof (forced_false_of_open _ _ _ H Hc) as Hfo.
    destruct (node_of_pend _ _ _ x H) as (n & Hn & Hx); [lia|].
    pose proof H as [HS HR HL HP]. unfold InvS, InvR, InvL in *.
    cbn [exec] in E. unfold ban_locked in E. rewrite <- Hx, (find_id_in _ n (si_ids _ _ _ _ HS) Hn), Hx in E.
    destruct (n_lru n) eqn:L; injection E as <- <-.
    - destruct (ban_absent_ok _ _ g x n H Hn Hx L) as [A X]. split; [|split; [exact X|cbn; auto]].
      eapply (post_open _ _ q); [reflexivity|exact A|intro y; cbn; lia|exact Hcap|exact Hc].
    - rewrite <- Hc. apply (unlinked g x n LBanned k H Hcap Hfo Hn Hx L). discriminate.
    - split; [|split; [apply ExtN_refl|cbn; auto]].
      eapply post_open; [reflexivity|exact H| |exact Hcap|exact Hc]. intro y. cbn. lia.
  Qed.

  (* IEvict (possibly on a stale pointer: the node may be gone) *)
  Lemma step_evict g x g' new k :
    Inv zr (fun y => (q y + instr_ref y (IEvict x))%Z) g -> CapOk g -> s_forced g = false ->
    exec (IEvict x) g = (g', new) ->
    post (s_closed g) g' new /\ Ext g g' /\ prefix_ok g' new k.
  Proof.
    intros H0 Hcap Hfo E.
    assert (Inv zr q g) as H by (eapply Inv_pext; [|exact H0]; intro y; cbn; lia).
    cbn [exec] in E. unfold evict_locked in E.
    assert (post (s_closed g) g [] /\ Ext g g /\ prefix_ok g [] k) as Same.
    { split; [|split; [apply ExtN_refl|cbn; auto]].
      eapply post_intro; [reflexivity|exact H| |exact Hcap|reflexivity|exact Hfo]. intro y. cbn. lia. }
    destruct (find_id x (s_nodes g)) as [n|] eqn:F; [|injection E as <- <-; exact Same].
    destruct (find_id_some _ _ _ F) as [Hn Hx].
    destruct (n_lru n) eqn:L; injection E as <- <-; try exact Same.
    apply (unlinked g x n LAbsent k H Hcap Hfo Hn Hx L). discriminate.
  Qed.
End Step.

Definition not_close (o : op) : Prop := match o with OClose _ => False | _ => True end.

Lemma code_ref_evicts y l : code_ref y (map IEvict l) = 0%Z.
Proof. induction l as [|x l IH]; [reflexivity|]. cbn [map]. rewrite code_ref_cons, IH. reflexivity. Qed.
Lemma code_zero_evicts y l : code_zero y (map IEvict l) = false.
Proof. unfold code_zero. induction l; cbn; auto. Qed.
Lemma code_ok_evicts s l : code_ok s (map IEvict l).
Proof. induction l; cbn; auto. Qed.
Lemma code_ok_decs s ext ev : code_ok s (decs ext ev).
Proof. induction ev; cbn; auto. Qed.

(* what a started operation leaves behind: the code it schedules accounts for the references it holds, and it has
   neither closed nor force-closed the cache *)
Definition started (zr : N -> bool) (q : N -> Z) (g g' : state) (code : list instr) : Prop :=
  Inv zr (fun y => (q y + code_ref y code)%Z) g' /\ CapOk g' /\ s_closed g' = s_closed g /\ s_forced g' = s_forced g /\
  Ext g g' /\ code_ok g' code /\ (forall y, code_zero y code = false).

(* Release and SetCapacity do not look at s_closed *)
Lemma start_free_ok zr q g o b g' code rl :
  Inv zr q g -> CapOk g -> start o b g = Some (g', code, rl) ->
  match o with ORelease _ | OSetCap _ => True | _ => False end ->
  started zr q g g' code.
Proof.
  intros H Hcap E Ho.
  assert (started zr q g g []) as Nop.
  { split; [|split; [|split; [|split; [|split; [|split]]]]]; auto; [|apply ExtN_refl|cbn; auto].
    eapply Inv_pext; [|exact H]. intro y. cbv beta. change (code_ref y []) with 0%Z. lia. }
  pose proof H as [HS HR HL HP]. unfold InvS, InvR, InvL in *.
  destruct o; try contradiction; cbn [start] in E.
  - (* Release *)
    destruct (find (fun p => fst p =? h) (s_handles g)) as [[h' x]|] eqn:F; injection E as <- <- <-; [|exact Nop].
    destruct (find_handle_some _ _ _ F) as [Hin Hh]. cbn in Hh. subst h'. cbn [snd].
    split; [|split; [|split; [|split; [|split; [|split]]]]]; auto.
    + eapply Inv_pext with (p := padd x 1 q).
      * intro y. unfold padd. cbn. rewrite (N.eqb_sym y x). destruct (x =? y); lia.
      * split; unfold InvS, InvR, InvL; sred; auto. apply (RInv_hdel _ _ _ _ _ _ _ _ _ h x HR Hin).
    + unfold Ext. sred. apply ExtN_refl.
    + cbn. auto.
  - (* SetCapacity *)
    destruct (s_cacher g); [|injection E as <- <- <-; exact Nop].
    unfold run_evict_loop in E.
    destruct (evict_loop (s_order (set_cap c g)) (set_cap c g)) as [s1 ev] eqn:EL. injection E as <- <- <-.
    assert (Inv zr q (set_cap c g)) as H' by (split; auto).
    destruct (evict_loop_ok _ _ _ _ _ _ H' eq_refl EL) as (A & B & D & X).
    destruct D as (d1 & d2 & d3 & _).
    split; [|split; [|split; [|split; [|split; [|split]]]]]; auto.
    + eapply Inv_pext; [|exact A]. intro y. unfold padds. now rewrite code_ref_decs.
    + apply code_ok_decs.
    + intro y. apply code_zero_decs.
Qed.

(* mBucket.get has found or created node x and taken a reference to it, which the code gives back *)
Lemma start_found_ok zr q g ns key go s1 x code :
  Inv zr q g -> CapOk g -> s_closed g = false -> bucket_get ns key go g = (s1, Some x) ->
  (forall y, code_ref y code = if x =? y then 1%Z else 0%Z) -> code_ok s1 code -> (forall y, code_zero y code = false) ->
  started zr q g s1 code.
Proof.
  intros H Hcap Hc B Hr Hk Hz. pose proof (bucket_get_ok _ _ g _ _ _ _ _ H Hc B) as ((H1 & M & C1 & Ex) & _).
  destruct M as (_ & mc & mf & _).
  split; [|split; [|split; [|split; [|split; [|split]]]]]; auto.
  eapply Inv_pext; [|exact H1]. intro y. cbv beta. rewrite Hr. unfold padd. rewrite (N.eqb_sym y x). destruct (x =? y); lia.
Qed.

Lemma start_ok zr q g o b g' code rl :
  Inv zr q g -> CapOk g -> (s_closed g = false -> not_close o) -> start o b g = Some (g', code, rl) ->
  started zr q g g' code.
Proof.
  intros H Hcap Hnc E.
  assert (forall s', Inv zr q s' -> CapOk s' -> s_closed s' = s_closed g -> s_forced s' = s_forced g -> Ext g s' ->
            started zr q g s' []) as Nop.
  { intros s' A B C D X. split; [|split; [|split; [|split; [|split; [|split]]]]]; auto; [|cbn; auto].
    eapply Inv_pext; [|exact A]. intro y. cbv beta. change (code_ref y []) with 0%Z. lia. }
  pose proof (Nop g H Hcap eq_refl eq_refl (ExtN_refl _ _ _)) as Nop0.
  destruct (s_closed g) eqn:Hc.
  { (* closed: every operation but Release and SetCapacity returns at once *)
    destruct o; try exact (start_free_ok _ _ _ _ _ _ _ _ H Hcap E I);
      cbn [start] in E; rewrite Hc in E; injection E as <- <- <-; exact Nop0. }
  specialize (Hnc eq_refl).
  assert (forall l, started zr q g g (map IEvict l)) as Evs.
  { intro l. split; [|split; [|split; [|split; [|split; [|split]]]]]; auto.
    - eapply Inv_pext; [|exact H]. intro y. rewrite code_ref_evicts. lia.
    - apply ExtN_refl.
    - apply code_ok_evicts.
    - intro y. apply code_zero_evicts. }
  pose proof H as [HS HR HL HP]. unfold InvS, InvR, InvL in *.
  destruct o; try contradiction; try exact (start_free_ok _ _ _ _ _ _ _ _ H Hcap E I); cbn [start] in E; rewrite Hc in E.
  - (* Get *)
    destruct (bucket_get ns key match sf with SfNil => true | SfRet _ _ => false end g) as [s1 [x|]] eqn:B;
      injection E as <- <- <-.
    + eapply start_found_ok; eauto.
      * intro y. cbn. destruct (x =? y); lia.
      * cbn. auto.
    + rewrite (bucket_get_ok _ _ g _ _ _ _ _ H Hc B). exact Nop0.
  - (* Delete *)
    destruct (bucket_get ns key true g) as [s1 [x|]] eqn:B; injection E as <- <- <-.
    + eapply start_found_ok; eauto.
      * intro y. rewrite !code_ref_app. destruct with_del; destruct (s_cacher s1); cbn; destruct (x =? y); lia.
      * destruct with_del; destruct (s_cacher s1); cbn; auto 6.
      * intro y. destruct with_del; destruct (s_cacher s1); reflexivity.
    + rewrite (bucket_get_ok _ _ g _ _ _ _ _ H Hc B). destruct with_del; [|exact Nop0].
      apply Nop; try reflexivity.
      * split; unfold InvS, InvR, InvL; sred; auto. now apply LInv_delrun_now.
      * exact Hcap.
      * exact Hc.
      * unfold Ext. sred. apply ExtN_refl.
  - (* Evict *)
    destruct (bucket_get ns key true g) as [s1 [x|]] eqn:B; injection E as <- <- <-.
    + eapply start_found_ok; eauto.
      * intro y. rewrite !code_ref_app. destruct (s_cacher s1); cbn; destruct (x =? y); lia.
      * destruct (s_cacher s1); cbn; auto.
      * intro y. destruct (s_cacher s1); reflexivity.
    + rewrite (bucket_get_ok _ _ g _ _ _ _ _ H Hc B). exact Nop0.
  - (* EvictNS *)
    destruct (s_cacher g); injection E as <- <- <-; [apply Evs|exact Nop0].
  - (* EvictAll *)
    destruct (s_cacher g); injection E as <- <- <-; [apply Evs|exact Nop0].
Qed.

Record LOk (L : lstate) : Prop := {
  lo_nd : NoDup (map fst (l_thr L));
  lo_inv : Inv (zero_pending (l_thr L)) (pendf (l_thr L)) (l_g L);
  lo_cap : CapOk (l_g L);
  lo_open : s_closed (l_g L) = false;
  lo_code : forall p, In p (l_thr L) -> code_ok (l_g L) (t_code (snd p)) }.

Lemma code_ref_le_pend x p l : In p l -> (code_ref x (t_code (snd p)) <= pend_ref x l)%Z.
Proof.
  induction l as [|a l IH]; [intros []|]. rewrite pend_ref_cons. intros [->|H].
  - pose proof (pend_ref_nonneg x l). lia.
  - specialize (IH H). pose proof (code_ref_nonneg x (t_code (snd a))). lia.
Qed.

Lemma others_sub t l p : In p (others t l) -> In p l.
Proof. unfold others. intro H. apply filter_In in H. tauto. Qed.

(* goroutine t set apart from the table: idle, about to run its next instruction i, given new code *)
Lemma Inv_idle thr t g :
  NoDup (map fst thr) -> t_code (get_thr t thr) = [] -> Inv (zero_pending thr) (pendf thr) g ->
  Inv (zero_pending (others t thr)) (fun y => pend_ref y (others t thr)) g.
Proof.
  intros ND Code HI. eapply Inv_zq_ext; [|eapply Inv_pext; [|exact HI]]; intro y.
  - rewrite (zero_pending_others y t thr ND), Code. reflexivity.
  - unfold pendf. rewrite (pend_ref_others y t thr ND), Code. cbn. lia.
Qed.

Lemma Inv_next thr t i k g :
  NoDup (map fst thr) -> t_code (get_thr t thr) = i :: k -> Inv (zero_pending thr) (pendf thr) g ->
  Inv (fun y => is_zero y i || (code_zero y k || zero_pending (others t thr) y))
      (fun y => (code_ref y k + pend_ref y (others t thr) + instr_ref y i)%Z) g.
Proof.
  intros ND Code HI. eapply Inv_zq_ext; [|eapply Inv_pext; [|exact HI]]; intro y.
  - rewrite (zero_pending_others y t thr ND), Code. cbn [code_zero existsb]. now rewrite orb_assoc.
  - unfold pendf. rewrite (pend_ref_others y t thr ND), Code, code_ref_cons. lia.
Qed.

Lemma Inv_app_code thr t new k g' :
  Inv (fun y => code_zero y new || (code_zero y k || zero_pending (others t thr) y))
      (fun y => (code_ref y k + pend_ref y (others t thr) + code_ref y new)%Z) g' ->
  Inv (fun y => code_zero y (new ++ k) || zero_pending (others t thr) y)
      (fun y => (pend_ref y (others t thr) + code_ref y (new ++ k))%Z) g'.
Proof.
  intro A. eapply Inv_zq_ext; [|eapply Inv_pext; [|exact A]]; intro y.
  - rewrite code_zero_app, orb_assoc. reflexivity.
  - rewrite code_ref_app. lia.
Qed.

Lemma Inv_set_thr thr t newc rl g' :
  Inv (fun y => code_zero y newc || zero_pending (others t thr) y)
      (fun y => (pend_ref y (others t thr) + code_ref y newc)%Z) g' ->
  Inv (zero_pending (set_thr t (mkThread newc rl) thr)) (pendf (set_thr t (mkThread newc rl) thr)) g'.
Proof.
  intro H'. eapply Inv_zq_ext; [|eapply Inv_pext; [|exact H']]; intro y.
  - rewrite zero_pending_set. reflexivity.
  - unfold pendf. rewrite pend_ref_set. cbn [t_code]. lia.
Qed.

Lemma lok_update L t newc rl g' :
  LOk L ->
  Inv (fun y => code_zero y newc || zero_pending (others t (l_thr L)) y)
      (fun y => (pend_ref y (others t (l_thr L)) + code_ref y newc)%Z) g' ->
  CapOk g' -> s_closed g' = false -> Ext (l_g L) g' -> code_ok g' newc ->
  LOk (mkL g' (set_thr t (mkThread newc rl) (l_thr L))).
Proof.
  intros [ND HI HC HO HK] H' C' O' E' K'. destruct L as [g thr]. cbn [l_g l_thr] in *.
  pose proof (Inv_set_thr thr t newc rl g' H') as HI'.
  split; cbn [l_g l_thr]; auto.
  - now apply nodup_set.
  - intros p Hp. apply in_set_thr in Hp. destruct Hp as [->|Hp]; [exact K'|].
    eapply code_ok_step; [exact HI|exact E'|exact O'|apply HK; eapply others_sub; eauto|].
    intros x Hx. eapply (node_of_pend _ _ _ x HI').
    unfold pendf. rewrite pend_ref_set. pose proof (code_ref_le_pend x p _ Hp). pose proof (code_ref_nonneg x newc).
    cbn [t_code]. lia.
Qed.

Lemma linit_ok cacher cap : LOk (linit cacher cap).
Proof.
  unfold linit. split; cbn [l_g l_thr].
  - constructor.
  - destruct (init_good (fun _ => false) cacher cap) as [(H & _) _].
    eapply Inv_zq_ext; [|eapply Inv_pext; [|exact H]]; intro y; reflexivity.
  - destruct (init_good (fun _ => false) cacher cap) as [(_ & C & _) _]. exact C.
  - reflexivity.
  - intros p [].
Qed.

Theorem lok_step L a L' : LOk L -> lstep_o L a = Some L' -> LOk L'.
Proof.
  intros OK E. unfold lstep_o in E. destruct (is_close a) eqn:IC; [discriminate|].
  pose proof OK as [ND HI HC HO HK]. destruct L as [g thr]. cbn [l_g l_thr] in *.
  pose proof (forced_false_of_open _ _ _ HI HO) as HF.
  destruct a as [t o|t]; cbn [lstep l_g l_thr] in E.
  - destruct (t_code (get_thr t thr)) eqn:Code; [|discriminate].
    destruct (start o (rlocked_other t thr) g) as [[[g' code] rl]|] eqn:St; [|discriminate]. injection E as <-.
    assert (not_close o) as NC by (destruct o; cbn in *; auto; discriminate).
    destruct (start_ok _ _ g o _ g' code rl (Inv_idle thr t g ND Code HI) HC (fun _ => NC) St)
      as (A & B & C & _ & D & K & Z). rewrite HO in C.
    apply (lok_update (mkL g thr) t code rl g' OK); auto.
    eapply Inv_zq_ext; [|exact A]. intro y. cbn [l_thr]. now rewrite Z.
  - destruct (t_code (get_thr t thr)) as [|i k] eqn:Code; [discriminate|].
    destruct (exec i g) as [g' new] eqn:Ex. injection E as <-.
    assert (In (t, get_thr t thr) thr) as Hin by (apply get_thr_code_in; auto; rewrite Code; discriminate).
    pose proof (HK _ Hin) as CK. cbn [snd] in CK. rewrite Code in CK. destruct CK as [Ci Ck].
    set (q := fun y => (code_ref y k + pend_ref y (others t thr))%Z).
    set (zr := fun y => code_zero y k || zero_pending (others t thr) y).
    pose proof (Inv_next thr t i k g ND Code HI) as HI0. change (Inv (fun y => is_zero y i || zr y) (fun y => (q y + instr_ref y i)%Z) g) in HI0.
    assert (forall y, 0 <= q y)%Z as Hq.
    { intro y. subst q. cbv beta. pose proof (code_ref_nonneg y k). pose proof (pend_ref_nonneg y (others t thr)). lia. }
    assert (forall y, (code_ref y k <= q y)%Z) as Kq.
    { intro y. subst q. cbv beta. pose proof (pend_ref_nonneg y (others t thr)). lia. }
    assert (forall (P : post zr q false g' new) (X : Ext g g') (F : prefix_ok g' new k),
              LOk (mkL g' (set_thr t (mkThread (new ++ k) (t_rl (get_thr t thr))) thr))) as Finish.
    { intros (A & B & C & _) X F. apply (lok_update (mkL g thr) t (new ++ k) _ g' OK); auto.
      - apply Inv_app_code. exact A.
      - apply code_ok_app; auto. eapply code_ok_step; [exact HI|exact X|exact C|exact Ck|].
        intros x Hx. eapply (node_of_pend _ _ _ x A). cbv beta. pose proof (code_ref_nonneg x new). specialize (Kq x). lia. }
    (* unless i is a zero-check, [is_zero y i || zr y] computes to [zr y] and HI0 is the premise of the step lemma *)
    destruct i.
    + destruct (step_node zr q Hq g x sf g' new k) as (P & X & F); auto.
    + destruct (step_promote zr q Hq g x g' new k) as (P & X & F); auto.
      apply Finish; auto. apply F.
      destruct P as (A & _ & C & _). eapply valued_ext; [exact HI|exact X|exact C|exact Ci|].
      eapply (node_of_pend _ _ _ x A). cbv beta.
      cbn [exec] in Ex. destruct (promote_locked x g) as [s' ev]. injection Ex as _ <-.
      rewrite code_ref_app. cbn [code_ref fold_right instr_ref]. rewrite N.eqb_refl.
      pose proof (code_ref_nonneg x (decs true ev)). specialize (Hq x). lia.
    + destruct (step_handle zr q Hq g x g' new) as (P & X & ->); auto.
      apply Finish; auto. cbn. auto.
    + destruct (step_dec zr q Hq g x ext g' new k) as (P & X & F); auto. rewrite HO in P. auto.
    + assert (Inv (fun y => (y =? x) || zr y) q g) as HZ.
      { eapply Inv_zq_ext; [|eapply Inv_pext; [|exact HI0]]; intro y; cbn [is_zero instr_ref];
          [now rewrite (N.eqb_sym x y)|lia]. }
      assert (instr_ok g (IZero x ns key ext) []) as IO by (destruct Ci as [c1 c2]; split; auto).
      destruct (step_zero zr q Hq g x ns key ext g' new HZ HC HO IO Ex) as ((A & B & C) & X & ->).
      apply Finish; [|exact X|cbn; auto]. split; [|split; [|split]]; auto.
      * eapply Inv_zq_ext; [|eapply Inv_pext; [|exact A]]; intro y; cbn; auto. lia.
      * eapply forced_false_of_open; eauto.
    + destruct (step_delreg zr q g x g' new) as (P & X & ->); auto.
      { cbn [instr_ok] in Ci. pose proof (code_ref_in_dec x k Ci). specialize (Kq x). lia. }
      apply Finish; auto. cbn. auto.
    + destruct (step_ban zr q g x g' new k) as (P & X & F); auto.
      cbn [instr_ok] in Ci. pose proof (code_ref_in_dec x k Ci). specialize (Kq x). lia.
    + destruct (step_evict zr q g x g' new k) as (P & X & F); auto. rewrite HO in P. auto.
Qed.

Theorem lreach_o_ok L : lreach_o L -> LOk L.
Proof. induction 1; [apply linit_ok|eapply lok_step; eauto]. Qed.

(* the C17 statements over all interleavings of the open cache *)
Section LtsOpen.
  Variable L : lstate.
  Hypothesis R : lreach_o L.
  Let OK : LOk L := lreach_o_ok L R.
  Let HI := lo_inv L OK.
  Let g := l_g L.

  Lemma lts_open : s_closed g = false /\ s_forced g = false.
  Proof. split; [apply (lo_open L OK)|]. apply (forced_false_of_open _ _ _ HI (lo_open L OK)). Qed.

  Theorem one_live_value_lts :
    forall h1 h2 n1 n2, handle_node g h1 = Some n1 -> handle_node g h2 = Some n2 -> keyof n1 = keyof n2 ->
      n1 = n2 /\
      exists v, handle_value g h1 = Some v /\ handle_value g h2 = Some v /\
                ccn (n_id n1) (s_log g) = 1%nat /\ ccv v (s_log g) = 1%nat /\ cf v (s_log g) = 0%nat.
  Proof. apply (one_live_value_gen _ _ _ HI). apply lts_open. Qed.

  Theorem construct_once_lts : forall x v, (ccn x (s_log g) <= 1)%nat /\ (ccv v (s_log g) <= 1)%nat.
  Proof. apply (construct_once_gen _ _ _ HI). Qed.

  Theorem finalise_at_most_once_lts : forall v, (cf v (s_log g) <= 1)%nat.
  Proof. apply (finalise_at_most_once_gen _ _ _ HI). Qed.

  Theorem finalise_not_early_lts :
    forall x v sz, In (EvConstruct x v sz) (s_log g) -> (1 <= cf v (s_log g))%nat -> handles_on x (s_handles g) = 0%nat.
  Proof. apply (finalise_not_early_gen _ _ _ HI). apply lts_open. Qed.

  Theorem finalise_or_live_lts :
    forall x v sz, In (EvConstruct x v sz) (s_log g) ->
      cf v (s_log g) = 1%nat \/ (cf v (s_log g) = 0%nat /\ exists n, In n (s_nodes g) /\ n_id n = x /\ n_val n = Some v).
  Proof. apply (finalise_or_live_gen _ _ _ HI). Qed.

  Theorem delfunc_at_most_once_lts : forall d, (cdr d (s_log g) <= 1)%nat.
  Proof. apply (delfunc_at_most_once_gen _ _ _ HI). Qed.

  Theorem delfunc_not_early_lts :
    forall d x, In (EvDelReg d x) (s_log g) -> (1 <= cdr d (s_log g))%nat -> handles_on x (s_handles g) = 0%nat.
  Proof. apply (delfunc_not_early_gen _ _ _ HI). apply lts_open. Qed.

  Theorem delfunc_ran_or_pending_lts :
    forall d, d < s_next_did g ->
      cdr d (s_log g) = 1%nat \/ (cdr d (s_log g) = 0%nat /\ exists n, In n (s_nodes g) /\ In d (n_dels n)).
  Proof. apply (delfunc_ran_or_pending_gen _ _ _ HI). Qed.

  (* the charge bound holds in EVERY reachable state, i.e. whenever the lru lock is free *)
  Theorem capacity_respected_lts : s_used g = used_sum (s_nodes g) /\ (s_used g <= Z.of_N (s_cap g))%Z.
  Proof. split; [apply (used_exact_gen _ _ _ HI)|apply (lo_cap L OK)]. Qed.

  Theorem lru_list_exact_lts :
    NoDup (s_order g) /\ forall x, In x (s_order g) <-> exists n, In n (s_nodes g) /\ n_id n = x /\ resident n = true.
  Proof. apply (lru_list_exact_gen _ _ _ HI). Qed.

  Theorem unique_keys_lts : NoDup (map keyof (s_nodes g)).
  Proof. apply (unique_keys_gen _ _ _ HI). Qed.

  (* ref = outstanding handles + (1 if linked) + references held by instructions still to run *)
  Theorem ref_census_lts :
    forall n, In n (s_nodes g) ->
      n_ref n = (Z.of_nat (handles_on (n_id n) (s_handles g)) + (if resident n then 1 else 0) + pend_ref (n_id n) (l_thr L))%Z
      /\ (0 <= n_ref n)%Z.
  Proof. apply (ref_census_gen _ _ _ HI). apply lts_open. Qed.

  (* a node whose count is 0 is waiting for its zero-check *)
  Theorem zero_ref_is_pending_lts :
    forall n, In n (s_nodes g) -> n_ref n = 0%Z -> zero_pending (l_thr L) (n_id n) = true.
  Proof.
    intros n Hn Hr. destruct (zero_pending (l_thr L) (n_id n)) eqn:Z; auto. exfalso.
    pose proof (inv_r _ _ _ HI) as HR. unfold InvR in HR. destruct lts_open as [Ho Hf].
    pose proof (ri_pos _ _ _ _ _ _ _ _ _ HR Hf n Hn (or_introl Ho) Z). fold g in H. lia.
  Qed.

  Theorem no_panic_lts : s_panic g = false.
  Proof. apply (no_panic_flag_gen _ _ _ HI). Qed.
End LtsOpen.
