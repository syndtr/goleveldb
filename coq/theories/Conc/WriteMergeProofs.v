(* Conc/WriteMergeProofs.v — proofs about the transition system Conc/WriteMerge.v, for any number of
   writers and arbitrary action sequences.
   Counting invariant [inv]: lock owners + free token = 1, writers waiting for a reply = replies due,
   writers waiting for an acknowledgement = acknowledgements due; by a counting lemma over the list of
   program counters and lia per action.  On it rest: every send of the leader has a receiver and a group
   ends in exactly one hand-over or release; some process can move while a call is in progress
   (no_lost_writer; txn_leak_deadlock for the leaked lock); the composition of journal records (P2,
   journal_composition); one result per call and per group (R1, rinv); publication once per journalled
   group, in journal order; the measure mu that every writer move decreases. *)
From Coq Require Import List NArith Bool Arith Lia.
From GL Require Import Conc.WriteMerge.
From GL Require Mem.ListLemmas.
Import ListNotations.

Fixpoint sumf {A} (f : A -> nat) (l : list A) : nat :=
  match l with [] => 0 | x :: t => f x + sumf f t end.

Lemma upd_length {A} (l : list A) i x : length (upd l i x) = length l.
Proof. revert i; induction l; destruct i; simpl; auto. Qed.

Lemma nth_upd_same {A} (l : list A) i x w : nth_error l i = Some w -> nth_error (upd l i x) i = Some x.
Proof. revert i; induction l; destruct i; simpl; intros; try discriminate; auto. Qed.

Lemma nth_upd_other {A} (l : list A) i j x : i <> j -> nth_error (upd l i x) j = nth_error l j.
Proof.
  revert i j; induction l; intros i j H; destruct i; destruct j; simpl; auto; try congruence.
Qed.

Lemma nth_upd_same_d {A} (l : list A) i x d : i < length l -> nth i (upd l i x) d = x.
Proof. revert i; induction l; intros i H; simpl in H; [lia|]. destruct i; simpl; auto. apply IHl. lia. Qed.

Lemma nth_upd_other_d {A} (l : list A) i j x d : i <> j -> nth j (upd l i x) d = nth j l d.
Proof.
  revert i j; induction l; intros i j H; destruct i; destruct j; simpl; auto; try congruence.
Qed.

Lemma sumf_upd {A} (f : A -> nat) l i x w :
  nth_error l i = Some w -> sumf f (upd l i x) + f w = sumf f l + f x.
Proof.
  revert i; induction l; destruct i; simpl; intros H; try discriminate.
  - inversion H; subst. lia.
  - specialize (IHl _ H). lia.
Qed.

Lemma sumf_upd2 {A} (f : A -> nat) l i j xi xj wi wj :
  nth_error l i = Some wi -> nth_error l j = Some wj -> i <> j ->
  sumf f (upd (upd l i xi) j xj) + f wi + f wj = sumf f l + f xi + f xj.
Proof.
  intros Hi Hj Hn.
  assert (H1 : nth_error (upd l i xi) j = Some wj) by (rewrite nth_upd_other; auto).
  pose proof (sumf_upd f _ _ xj _ H1). pose proof (sumf_upd f _ _ xi _ Hi). lia.
Qed.

Lemma sumf_pos {A} (f : A -> nat) l : 0 < sumf f l -> exists i w, nth_error l i = Some w /\ 0 < f w.
Proof.
  induction l; simpl; intros H; [lia|].
  destruct (f a) eqn:E.
  - destruct IHl as (i & w & Hi & Hw); [lia|]. exists (S i), w; auto.
  - exists 0, a; simpl; split; auto; lia.
Qed.

Lemma sumf_ge {A} (f : A -> nat) l i w : nth_error l i = Some w -> f w <= sumf f l.
Proof. revert i; induction l; destruct i; simpl; intros H; try discriminate.
  - inversion H; subst; lia.
  - specialize (IHl _ H); lia.
Qed.

Lemma sumf_two {A} (f : A -> nat) l i j wi wj :
  nth_error l i = Some wi -> nth_error l j = Some wj -> i <> j -> f wi + f wj <= sumf f l.
Proof.
  revert i j; induction l; intros i j Hi Hj Hn; destruct i; destruct j; simpl in *; try discriminate; try congruence.
  - inversion Hi; subst. pose proof (sumf_ge f _ _ _ Hj). lia.
  - inversion Hj; subst. pose proof (sumf_ge f _ _ _ Hi). lia.
  - assert (i <> j) by congruence. specialize (IHl _ _ Hi Hj H). lia.
Qed.

Lemma sumf_repeat {A} (f : A -> nat) x n : f x = 0 -> sumf f (repeat x n) = 0.
Proof. intros H; induction n; simpl; auto. lia. Qed.

Lemma Forall_upd {A} (P : A -> Prop) l i x : Forall P l -> P x -> Forall P (upd l i x).
Proof.
  revert i; induction l; destruct i; simpl; intros H Hx; auto; inversion H; subst; constructor; auto.
Qed.

Lemma Forall_nth {A} (P : A -> Prop) l i w : Forall P l -> nth_error l i = Some w -> P w.
Proof. intros H Hn. rewrite Forall_forall in H. apply H. eapply nth_error_In; eauto. Qed.

Definition holdsp (p : wpc) : nat :=
  match p with
  | WLFlush | WLMerge _ | WLReply _ _ | WLJournal _ | WLApply _ | WLPublish _ | WLRotate _ | WLUnlock _ _ _ => 1
  | _ => 0
  end.
Definition mwaitp (p : wpc) : nat := match p with WWaitMerged => 1 | _ => 0 end.
Definition waitackp (p : wpc) : nat := match p with WWaitAck => 1 | _ => 0 end.
Definition ctx_over (c : lctx) : nat := match lover c with Some _ => 1 | None => 0 end.
Definition replyduep (p : wpc) : nat :=
  match p with
  | WLReply c _ => 1 + ctx_over c
  | WLMerge c | WLJournal c | WLApply c | WLPublish c | WLRotate c | WLUnlock c _ _ => ctx_over c
  | _ => 0
  end.
Definition ackduep (p : wpc) : nat :=
  match p with
  | WLMerge c | WLReply c _ | WLJournal c | WLApply c | WLPublish c | WLRotate c => lmerged c
  | WLUnlock c k _ => lmerged c - k
  | _ => 0
  end.

Definition holds (w : writer) := holdsp (pc w).
Definition mwait (w : writer) := mwaitp (pc w).
Definition waitack (w : writer) := waitackp (pc w).
Definition replydue (w : writer) := replyduep (pc w).
Definition ackdue (w : writer) := ackduep (pc w).

(* local facts: in the merge loop no overflow has happened yet; merged counts the replies sent;
   the loop counter of unlockWrite never exceeds merged *)
Definition wf_ctx (c : lctx) : Prop := length (lreplied c) = lmerged c.
Definition wf_pc (p : wpc) : Prop :=
  match p with
  | WLMerge c | WLReply c _ => lover c = None /\ wf_ctx c
  | WLJournal c | WLApply c | WLPublish c | WLRotate c => wf_ctx c
  | WLUnlock c k _ => wf_ctx c /\ k <= lmerged c
  | _ => True
  end.
Definition wf_writer (w : writer) : Prop := wf_pc (pc w).

Definition b2n (b : bool) : nat := if b then 1 else 0.
Definition close_holds (s : state) : nat := match cpc s with CLocked => 1 | _ => 0 end.

(* everybody who owns the write lock *)
Definition owners (s : state) : nat :=
  sumf holds (ws s) + cr s + tflush s + topen s + tleak s + close_holds s + b2n (cwl s).

Record inv (s : state) : Prop := {
  inv_lock : owners s = b2n (lock s);
  inv_reply : sumf mwait (ws s) = sumf replydue (ws s);
  inv_ack : sumf waitack (ws s) = sumf ackdue (ws s);
  inv_wf : Forall wf_writer (ws s);
  (* the lock is held on the handler's behalf only while SetReadOnly is between its selects, or the
     handler is in its persistent-error loop, or the DB is closing *)
  inv_cwl : cwl s = true -> ropend s = 0 -> hpc s = HPerr \/ closed s = true;
  inv_hexit : hpc s = HExit -> closed s = true
}.

Lemma inv_init n : inv (init n).
Proof.
  constructor; unfold owners, close_holds; simpl; try discriminate;
    rewrite ?sumf_repeat by reflexivity; auto.
  induction n; simpl; constructor; auto. exact I.
Qed.

(* case analysis on whatever [match] or [if] a hypothesis [... = Some _] is stuck on *)
Ltac dm :=
  repeat match goal with
  | H : match ?x with _ => _ end = Some _ |- _ =>
      let E := fresh "E" in destruct x eqn:E; try discriminate
  | H : (if ?x then _ else _) = Some _ |- _ =>
      let E := fresh "E" in destruct x eqn:E; try discriminate
  end.

Lemma pcs_differ (l : list writer) i j wi wj :
  nth_error l i = Some wi -> nth_error l j = Some wj -> pc wi <> pc wj -> i <> j.
Proof. intros Hi Hj Hp E; subst. rewrite Hi in Hj. inversion Hj; subst. auto. Qed.

(* the leader's locals after db.flush *)
Definition flush_ctx (mp : mparams) (l : nat) (w : writer) (free : N) : lctx :=
  {| lfree := free; lown := wsize w; llim := merge_limit mp (wsize w) free; lmerged := 0;
     lbatches := [l]; lover := None; lreplied := [] |}.

Definition jrec_of (ok : bool) (l : nat) (c : lctx) : jrecd :=
  {| j_ok := ok; j_leader := l; j_batches := lbatches c; j_replied := lreplied c |}.

(* what the other lock takers change: Close the lock and its own pc; a transaction the lock and its three
   counters; CompactRange the lock and its counter; SetReadOnly and the error handler the lock, hpc, cwl, ropend *)
Definition set_close (s : state) lk c := with_env s lk c (hpc s) (cwl s) (ropend s) (cr s) (tflush s) (topen s) (tleak s).
Definition set_txn (s : state) lk tf to tl := with_env s lk (cpc s) (hpc s) (cwl s) (ropend s) (cr s) tf to tl.
Definition set_cr (s : state) lk k := with_env s lk (cpc s) (hpc s) (cwl s) (ropend s) k (tflush s) (topen s) (tleak s).
Definition set_handler (s : state) lk h w ro := with_env s lk (cpc s) h w ro (cr s) (tflush s) (topen s) (tleak s).

(* [emove s a s']: a process other than a writer moves *)
Inductive emove (s : state) : action -> state -> Prop :=
| ECloseCall (Hc : cpc s = CIdle) : emove s ACloseCall (set_close s (lock s) CCalled)
| ECloseSignal (Hc : cpc s = CCalled) : emove s ACloseSignal (set_close s (lock s) CSignalled)
| ECloseLock (Hc : cpc s = CSignalled) (Hlk : lock s = false) : emove s ACloseLock (set_close s true CLocked)
| ETxnAcquire (Hlk : lock s = false) : emove s ATxnAcquire (set_txn s true (S (tflush s)) (topen s) (tleak s))
| ETxnFlushOk n (Hn : tflush s = S n) : emove s ATxnFlushOk (set_txn s (lock s) n (S (topen s)) (tleak s))
| ETxnFlushFail n (Hn : tflush s = S n) : emove s ATxnFlushFail (set_txn s (lock s) n (topen s) (S (tleak s)))
| ETxnDone n (Hn : topen s = S n) (Hlk : lock s = true) : emove s ATxnDone (set_txn s false (tflush s) n (tleak s))
| ECRAcquire (Hlk : lock s = false) : emove s ACRAcquire (set_cr s true (S (cr s)))
| ECRRelease n (Hn : cr s = S n) (Hlk : lock s = true) : emove s ACRRelease (set_cr s false n)
| EROAcquire (Hlk : lock s = false) : emove s AROAcquire (set_handler s true (hpc s) true (S (ropend s)))
| EROSend n (Hn : ropend s = S n) (Hh : hpc s = HNoErr) : emove s AROSend (set_handler s (lock s) HPerr (cwl s) n)
| EROAbort n (Hn : ropend s = S n) (Hh : hpc s = HPerr \/ closed s = true) :
    emove s AROAbort (set_handler s (lock s) (hpc s) (cwl s) n)
| EHPerr (Hh : hpc s = HNoErr) : emove s AHPerr (set_handler s (lock s) HPerr (cwl s) (ropend s))
| EHLock (Hh : hpc s = HPerr) (Hlk : lock s = false) : emove s AHLock (set_handler s true HPerr true (ropend s))
| EHExit (Hc : closed s = true) (Hh : hpc s = HNoErr) : emove s AHExit (set_handler s (lock s) HExit (cwl s) (ropend s))
| EHExitPerr (Hc : closed s = true) (Hh : hpc s = HPerr) (Hw : cwl s = false) :
    emove s AHExit (set_handler s (lock s) HExit false (ropend s))
| EHExitUnlock (Hc : closed s = true) (Hh : hpc s = HPerr) (Hw : cwl s = true) (Hlk : lock s = true) :
    emove s AHExit (set_handler s false HExit false (ropend s)).

(* [lmove mp s a i w w' t]: writer i, which is [w], moves alone and becomes [w']; [t] is [s] with the lock
   and the history variables as the move leaves them *)
Inductive lmove (mp : mparams) (s : state) : action -> nat -> writer -> writer -> state -> Prop :=
| MCall i m put sz w (Hp : pc w = WIdle) :
    lmove mp s (ACall i m put sz) i w {| pc := WSelect; wmerge := m; wput := put; wsize := sz; wgroup := None |} s
| MSelLock i w (Hp : pc w = WSelect) (Hlk : lock s = false) :
    lmove mp s (ASelLock i) i w (set_pc w WLFlush) (with_lock s true)
| MSelPerr i w (Hp : pc w = WSelect) (Hh : hpc s = HPerr) :
    lmove mp s (ASelPerr i) i w (set_pc w (WRet RPerr)) s
| MSelClosed i w (Hp : pc w = WSelect) (Hc : closed s = true) :
    lmove mp s (ASelClosed i) i w (set_pc w (WRet RClosed)) s
| MFlushOk l free w (Hp : pc w = WLFlush) :
    lmove mp s (AFlushOk l free) l w
      (set_pc w (if wmerge w then WLMerge (flush_ctx mp l w free) else WLJournal (flush_ctx mp l w free))) s
| MFlushFail l e w (Hp : pc w = WLFlush) (He : e <> ROk) :
    lmove mp s (AFlushFail l e) l w (set_pc w (WLUnlock ctx0 0 e)) s
| MMergeDone l c w (Hp : pc w = WLMerge c) :
    lmove mp s (AMergeDone l) l w (set_pc w (WLJournal c)) s
| MJournalOk l c w (Hp : pc w = WLJournal c) :
    lmove mp s (AJournalOk l) l w (set_pc w (WLApply c))
      (with_logs s (jlog s ++ [jrec_of true l c]) (plog s) (rlog s) (glog s) (alog s))
| MJournalFail l e c w (Hp : pc w = WLJournal c) (He : e <> ROk) :
    lmove mp s (AJournalFail l e) l w (set_pc w (WLUnlock c 0 e))
      (with_logs s (jlog s ++ [jrec_of false l c]) (plog s) (rlog s) (glog s) (alog s))
| MApply l c w (Hp : pc w = WLApply c) :
    lmove mp s (AApply l) l w (set_pc w (WLPublish c)) s
| MPublish l c w (Hp : pc w = WLPublish c) :
    lmove mp s (APublish l) l w (set_pc w (WLRotate c))
      (with_logs s (jlog s) (plog s ++ [l]) (rlog s) (glog s) (alog s))
| MRotateSkip l c w (Hp : pc w = WLRotate c) (Hf : (lown c <? lfree c)%N = true) :
    lmove mp s (ARotateSkip l) l w (set_pc w (WLUnlock c 0 ROk)) s
| MRotateOk l c w (Hp : pc w = WLRotate c) (Hf : (lown c <? lfree c)%N = false) :
    lmove mp s (ARotateOk l) l w (set_pc w (WLUnlock c 0 ROk)) s
| MRotateFail l e c w (Hp : pc w = WLRotate c) (He : e <> ROk) (Hf : (lown c <? lfree c)%N = false) :
    lmove mp s (ARotateFail l e) l w (set_pc w (WLUnlock c 0 e)) s
| MRelease l c k e w (Hp : pc w = WLUnlock c k e) (Hk : (k <? lmerged c) = false) (Ho : lover c = None)
    (Hlk : lock s = true) :
    lmove mp s (ARelease l) l w (set_pc w (WRet e))
      (with_logs (with_lock s false) (jlog s) (plog s) (rlog s) (glog s ++ [mk_grec l c k None e]) (alog s))
| MReturn i e w (Hp : pc w = WRet e) :
    lmove mp s (AReturn i) i w (set_pc w (WDone e))
      (with_logs s (jlog s) (plog s) (rlog s ++ [(i, e)]) (glog s) (alog s)).

(* [rmove s a i l w wl w' wl' t]: a rendezvous on an unbuffered channel between writer i, which is [w], and the
   leader l, which is [wl] *)
Inductive rmove (s : state) : action -> nat -> nat -> writer -> writer -> writer -> writer -> state -> Prop :=
| MSelMerge i l w wl c (Hp : pc w = WSelect) (Hpl : pc wl = WLMerge c)
    (Hm : wmerge w && (0 <? llim c)%N = true) :
    rmove s (ASelMerge i l) i l w wl (set_pc w WWaitMerged)
      (set_pc wl (merge_decide c i (wsize w) (wput wl && wput w))) s
| MReplyTrue l i w wl c x (Hpl : pc wl = WLReply c x) (Hp : pc w = WWaitMerged) :
    rmove s (AReplyTrue l i) i l w wl
      {| pc := WWaitAck; wmerge := wmerge w; wput := wput w; wsize := wsize w; wgroup := Some l |}
      (set_pc wl (WLMerge (after_reply c i))) s
| MAck l i w wl c k e (Hpl : pc wl = WLUnlock c k e) (Hp : pc w = WWaitAck) (Hk : (k <? lmerged c) = true) :
    rmove s (AAck l i) i l w wl (set_pc w (WRet e)) (set_pc wl (WLUnlock c (S k) e))
      (with_logs s (jlog s) (plog s) (rlog s) (glog s) (alog s ++ [(l, i)]))
| MHandover l o w wl c k e x (Hpl : pc wl = WLUnlock c k e) (Hp : pc w = WWaitMerged)
    (Hk : (k <? lmerged c) = false) (Ho : lover c = Some x) :
    rmove s (AHandover l o) o l w wl (set_pc w WLFlush) (set_pc wl (WRet e))
      (with_logs s (jlog s) (plog s) (rlog s) (glog s ++ [mk_grec l c k (Some o) e]) (alog s)).

Inductive shape (mp : mparams) (s : state) (a : action) (s' : state) : Prop :=
| SEnv (He : emove s a s')
| SLoc i w w' t (Hi : nth_error (ws s) i = Some w) (Hm : lmove mp s a i w w' t)
    (Es : s' = with_ws t (upd (ws s) i w'))
| SRdv i l w wl w' wl' t (Hn : i <> l) (Hi : nth_error (ws s) i = Some w) (Hl : nth_error (ws s) l = Some wl)
    (Hm : rmove s a i l w wl w' wl' t) (Es : s' = with_ws t (upd (upd (ws s) i w') l wl')).

Lemma step_shape mp s a s' : step mp s a = Some s' -> shape mp s a s'.
Proof.
  intros H. destruct a; unfold step, getw in H; dm; inversion H; subst; clear H.
  all: try (apply SEnv; constructor; auto; fail).
  all: try (eapply SLoc; [eassumption | constructor; try eassumption; discriminate | reflexivity]).
  all: try (eapply SRdv; [ | | | econstructor; eassumption | reflexivity]; [ | eassumption | eassumption];
            eapply pcs_differ; [eassumption | eassumption | congruence]).
  - (* AROAbort: the guard as a disjunction *)
    apply SEnv. constructor; auto. apply orb_true_iff in E0. destruct E0 as [E0|E0]; auto. destruct (hpc s); auto; discriminate.
Qed.

Ltac env_simpl := unfold owners, close_holds, closed in *;
  cbn [ws lock cpc hpc cwl ropend cr tflush topen tleak with_ws with_lock with_env with_logs b2n] in *.

Lemma sum_balance {A} (f g : A -> nat) L i w w' : nth_error L i = Some w -> sumf f L = sumf g L ->
  f w' + g w = f w + g w' -> sumf f (upd L i w') = sumf g (upd L i w').
Proof. intros Hi E Hb. pose proof (sumf_upd f _ _ w' _ Hi). pose proof (sumf_upd g _ _ w' _ Hi). lia. Qed.

Lemma sum_balance2 {A} (f g : A -> nat) L i l w wl w' wl' : nth_error L i = Some w -> nth_error L l = Some wl ->
  i <> l -> sumf f L = sumf g L -> f w' + f wl' + g w + g wl = f w + f wl + g w' + g wl' ->
  sumf f (upd (upd L i w') l wl') = sumf g (upd (upd L i w') l wl').
Proof.
  intros Hi Hl Hn E Hb. pose proof (sumf_upd2 f _ _ _ w' wl' _ _ Hi Hl Hn).
  pose proof (sumf_upd2 g _ _ _ w' wl' _ _ Hi Hl Hn). lia.
Qed.

(* the one test a move may depend on: wmerge in AFlushOk, the size test in ASelMerge *)
Ltac split_if := match goal with |- context [if ?b then _ else _] => destruct b | _ => idtac end.

(* the measures and local facts of closed program counters *)
Ltac local_meas :=
  cbn [pc set_pc holdsp mwaitp waitackp replyduep ackduep wf_pc] in *; unfold ctx_over, wf_ctx in *;
  cbn [lover lmerged lreplied flush_ctx ctx0 after_reply] in *;
  repeat match goal with H : _ /\ _ |- _ => destruct H end;
  repeat match goal with H : lover _ = _ |- _ => rewrite H in * end.

Section Proofs.
Variable mp : mparams.

(* a move of the environment: the owners lost or gained balance the lock bit *)
Lemma inv_env s lk c h w ro k tf to tl : inv s ->
  k + tf + to + tl + match c with CLocked => 1 | _ => 0 end + b2n w + b2n (lock s) =
    cr s + tflush s + topen s + tleak s + close_holds s + b2n (cwl s) + b2n lk ->
  (w = true -> ro = 0 -> h = HPerr \/ match c with CSignalled | CLocked => true | _ => false end = true) ->
  (h = HExit -> match c with CSignalled | CLocked => true | _ => false end = true) ->
  inv (with_env s lk c h w ro k tf to tl).
Proof.
  intros [Il Ir Ia Iw Ic Ih] E Hc Hh. constructor; try assumption. unfold owners, close_holds in *.
  cbn [ws lock cpc cwl cr tflush topen tleak with_env]. lia.
Qed.

(* field by field; each sum changes by the measures of the one or two writers that move, so every case is a
   closed equation about their program counters *)
Lemma step_inv s a s' : inv s -> step mp s a = Some s' -> inv s'.
Proof.
  intros Hv H.
  destruct (step_shape _ _ _ _ H) as [He | i w w' t Hi Hm -> | i l w wl w' wl' t Hn Hi Hil Hm ->]; clear H.
  1:{ pose proof (inv_lock s Hv) as Il. pose proof (inv_cwl s Hv) as Ic. pose proof (inv_hexit s Hv) as Ih.
      destruct He; unfold set_close, set_txn, set_cr, set_handler; apply (inv_env _ _ _ _ _ _ _ _ _ _ Hv);
        unfold owners, close_holds, closed in *;
        repeat match goal with E : _ s = _ |- _ => rewrite E in * end; cbn [b2n] in *; auto;
        try (intros; discriminate); lia. }
  all: destruct Hv as [Il Ir Ia Iw Ic Ih].
  - pose proof (Forall_nth _ _ _ _ Iw Hi) as Hwf. unfold wf_writer in Hwf. constructor.
    + pose proof (sumf_upd holds _ _ w' _ Hi) as Eh. clear Ir Ia Iw Ic Ih Hwf.
      destruct Hm; env_simpl; unfold holds in *; rewrite Hp in Eh; split_if; cbn [pc set_pc holdsp] in Eh;
        rewrite ?Hlk in Il; cbn [b2n] in Il; lia.
    + apply (sum_balance _ _ _ _ _ w' Hi Ir). unfold mwait, replydue. clear Il Ir Ia Iw Ic Ih.
      destruct Hm; rewrite Hp in *; split_if; local_meas; lia.
    + apply (sum_balance _ _ _ _ _ w' Hi Ia). unfold waitack, ackdue. clear Il Ir Ia Iw Ic Ih.
      destruct Hm; rewrite Hp in *; split_if; local_meas; try apply Nat.ltb_ge in Hk; lia.
    + apply Forall_upd; [exact Iw|]. unfold wf_writer. clear Il Ir Ia Iw Ic Ih.
      destruct Hm; rewrite Hp in Hwf; split_if; local_meas; repeat split; auto; lia.
    + destruct Hm; exact Ic.
    + destruct Hm; exact Ih.
  - pose proof (Forall_nth _ _ _ _ Iw Hil) as Hwf. unfold wf_writer in Hwf. constructor.
    + pose proof (sumf_upd2 holds _ _ _ w' wl' _ _ Hi Hil Hn) as Eh. clear Ir Ia Iw Ic Ih Hwf.
      destruct Hm; env_simpl; unfold holds in *; rewrite Hp, Hpl in Eh; unfold merge_decide in *; split_if;
        cbn [pc set_pc holdsp] in Eh; lia.
    + apply (sum_balance2 _ _ _ _ _ _ _ w' wl' Hi Hil Hn Ir). unfold mwait, replydue. clear Il Ir Ia Iw Ic Ih.
      destruct Hm; rewrite Hp, Hpl in *; unfold merge_decide; split_if; local_meas; lia.
    + apply (sum_balance2 _ _ _ _ _ _ _ w' wl' Hi Hil Hn Ia). unfold waitack, ackdue. clear Il Ir Ia Iw Ic Ih.
      destruct Hm; rewrite Hp, Hpl in *; unfold merge_decide; split_if; local_meas;
        try apply Nat.ltb_ge in Hk; try apply Nat.ltb_lt in Hk; lia.
    + apply Forall_upd; [apply Forall_upd; [exact Iw|destruct Hm; exact I]|]. unfold wf_writer. clear Il Ir Ia Iw Ic Ih.
      destruct Hm; rewrite Hpl in Hwf; unfold merge_decide; split_if; local_meas;
        try apply Nat.ltb_lt in Hk; rewrite ?app_length; cbn [length]; repeat split; auto; lia.
    + destruct Hm; exact Ic.
    + destruct Hm; exact Ih.
Qed.

Lemma run_ind (I : state -> Prop) : (forall s a s', I s -> step mp s a = Some s' -> I s') ->
  forall l s s', I s -> run mp s l = Some s' -> I s'.
Proof.
  intros HI. induction l as [|a l IH]; simpl; intros s s' Hs H.
  - inversion H; subst; exact Hs.
  - destruct (step mp s a) eqn:E; [|discriminate]. exact (IH _ _ (HI _ _ _ Hs E) H).
Qed.

Lemma run_inv l : forall s s', inv s -> run mp s l = Some s' -> inv s'.
Proof. exact (run_ind inv step_inv l). Qed.

Lemma run_ind_inv (I : state -> Prop) : (forall s a s', inv s -> I s -> step mp s a = Some s' -> I s') ->
  forall l s s', inv s -> I s -> run mp s l = Some s' -> I s'.
Proof.
  intros HI l s s' Hv Hs H. apply (run_ind (fun s => inv s /\ I s)) with (l := l) (s := s); auto.
  intros s0 a s1 [A B] Hst. split; [exact (step_inv _ _ _ A Hst) | exact (HI _ _ _ A B Hst)].
Qed.

Definition reachable (n : nat) (s : state) : Prop := exists l, run mp (init n) l = Some s.

Lemma reachable_inv n s : reachable n s -> inv s.
Proof. intros [l H]. eapply run_inv; [apply inv_init|eauto]. Qed.

End Proofs.

Lemma sumf_zero {A} (f : A -> nat) l : (forall j v, nth_error l j = Some v -> f v = 0) -> sumf f l = 0.
Proof.
  induction l; simpl; intros H; auto.
  rewrite (H 0 a eq_refl). rewrite IHl; auto. intros j v Hj. apply (H (S j) v Hj).
Qed.

Lemma sumf_single {A} (f : A -> nat) l i w :
  nth_error l i = Some w -> (forall j v, j <> i -> nth_error l j = Some v -> f v = 0) -> sumf f l = f w.
Proof.
  revert i; induction l; destruct i; simpl; intros H Hz; try discriminate.
  - inversion H; subst. rewrite (sumf_zero f l); [lia|].
    intros j v Hj. apply (Hz (S j) v); [discriminate|exact Hj].
  - rewrite (Hz 0 a); [|discriminate|reflexivity]. simpl. apply (IHl i); auto.
    intros j v Hn Hj. apply (Hz (S j) v); [congruence|exact Hj].
Qed.

Lemma holdsp_le1 p : holdsp p <= 1.
Proof. destruct p; simpl; lia. Qed.

Lemma replydue_holds p : holdsp p = 0 -> replyduep p = 0.
Proof. destruct p; simpl; auto; discriminate. Qed.

Lemma ackdue_holds p : holdsp p = 0 -> ackduep p = 0.
Proof. destruct p; simpl; auto; discriminate. Qed.

Lemma holds_pc w p : pc w = p -> holdsp p = 1 -> holds w = 1.
Proof. intros <- H. exact H. Qed.

Lemma owners_le1 s : inv s -> owners s <= 1.
Proof. intros H. rewrite (inv_lock s H). destruct (lock s); simpl; lia. Qed.

(* a writer that owns the lock is the only owner *)
Lemma only_leader s l wl : inv s -> nth_error (ws s) l = Some wl -> holds wl = 1 ->
  (forall j w, j <> l -> nth_error (ws s) j = Some w -> holds w = 0) /\
  cr s = 0 /\ tflush s = 0 /\ topen s = 0 /\ tleak s = 0 /\ close_holds s = 0 /\ cwl s = false /\ lock s = true.
Proof.
  intros Hi Hl H1. pose proof (owners_le1 s Hi) as Ho. pose proof (inv_lock s Hi) as Hk. unfold owners in *.
  pose proof (sumf_ge holds _ _ _ Hl).
  split.
  - intros j w Hn Hj. pose proof (sumf_two holds _ _ _ _ _ Hj Hl Hn). lia.
  - destruct (cwl s); destruct (lock s); simpl in *; repeat split; try lia.
Qed.

Lemma same_leader s l wl j w : inv s -> nth_error (ws s) l = Some wl -> holds wl = 1 ->
  nth_error (ws s) j = Some w -> holds w = 1 -> j = l /\ w = wl.
Proof.
  intros Hv Hl Hh Hj Hhj. destruct (Nat.eq_dec j l) as [->|Hn].
  - rewrite Hl in Hj. inversion Hj; auto.
  - destruct (only_leader s l wl Hv Hl Hh) as [Ho _]. specialize (Ho j w Hn Hj). lia.
Qed.

Lemma leader_sums s l wl : inv s -> nth_error (ws s) l = Some wl -> holds wl = 1 ->
  sumf mwait (ws s) = replydue wl /\ sumf waitack (ws s) = ackdue wl.
Proof.
  intros Hi Hl H1. destruct (only_leader s l wl Hi Hl H1) as [Ho _].
  rewrite (inv_reply s Hi), (inv_ack s Hi). split; apply (sumf_single _ _ l); auto; intros j v Hn Hj.
  - apply replydue_holds. apply (Ho j v); auto.
  - apply ackdue_holds. apply (Ho j v); auto.
Qed.

Lemma no_leader_sums s : inv s -> sumf holds (ws s) = 0 ->
  sumf mwait (ws s) = 0 /\ sumf waitack (ws s) = 0.
Proof.
  intros Hi H0. rewrite (inv_reply s Hi), (inv_ack s Hi).
  assert (Hz : forall j v, nth_error (ws s) j = Some v -> holds v = 0).
  { intros j v Hj. pose proof (sumf_ge holds _ _ _ Hj). lia. }
  split; apply sumf_zero; intros j v Hj; [apply replydue_holds | apply ackdue_holds]; apply (Hz j v Hj).
Qed.

Lemma find_measure (f : writer -> nat) (p : wpc -> nat) l :
  (forall w, f w = p (pc w)) -> 0 < sumf f l -> exists i w, nth_error l i = Some w /\ 0 < p (pc w).
Proof. intros Hf H. destruct (sumf_pos f l H) as (i & w & Hi & Hw). exists i, w. rewrite <- Hf. auto. Qed.

Lemma mwaitp_pos p : 0 < mwaitp p -> p = WWaitMerged.
Proof. destruct p; simpl; auto; lia. Qed.
Lemma waitackp_pos p : 0 < waitackp p -> p = WWaitAck.
Proof. destruct p; simpl; auto; lia. Qed.

Section Theorems.
Variable mp : mparams.

Theorem mutex_owners n s : reachable mp n s ->
  owners s <= 1 /\ (lock s = true -> owners s = 1) /\ (lock s = false -> owners s = 0).
Proof.
  intros R. pose proof (reachable_inv mp n s R) as Hi. pose proof (inv_lock s Hi) as Hk.
  repeat split; [apply owners_le1; auto | |]; intros E; rewrite E in Hk; auto.
Qed.

Theorem mutex_writers n s i j wi wj : reachable mp n s ->
  nth_error (ws s) i = Some wi -> nth_error (ws s) j = Some wj -> holds wi = 1 -> holds wj = 1 -> i = j.
Proof.
  intros R Hi Hj H1 H2. exact (proj1 (same_leader s j wj i wi (reachable_inv mp n s R) Hj H2 Hi H1)).
Qed.

(* every blocking send of the leader has a receiver waiting *)
Theorem reply_has_receiver n s l wl c x : reachable mp n s ->
  nth_error (ws s) l = Some wl -> pc wl = WLReply c x ->
  exists i, step mp s (AReplyTrue l i) <> None.
Proof.
  intros R Hl Hp. pose proof (reachable_inv mp n s R) as Hv.
  pose proof (holds_pc _ _ Hp eq_refl) as H1.
  destruct (leader_sums s l wl Hv Hl H1) as [Hm _]. unfold replydue in Hm. rewrite Hp in Hm. simpl in Hm.
  destruct (find_measure mwait mwaitp (ws s)) as (i & w & Hi & Hw); [reflexivity | lia |].
  apply mwaitp_pos in Hw. exists i. unfold step, getw. rewrite Hl, Hi, Hp, Hw. discriminate.
Qed.

Theorem ack_receivers n s l wl c k e : reachable mp n s ->
  nth_error (ws s) l = Some wl -> pc wl = WLUnlock c k e ->
  sumf waitack (ws s) = lmerged c - k /\ k <= lmerged c.
Proof.
  intros R Hl Hp. pose proof (reachable_inv mp n s R) as Hv.
  pose proof (holds_pc _ _ Hp eq_refl) as H1.
  destruct (leader_sums s l wl Hv Hl H1) as [_ Ha]. unfold ackdue in Ha. rewrite Hp in Ha. simpl in Ha.
  split; auto. pose proof (Forall_nth _ _ _ _ (inv_wf s Hv) Hl) as Hw. unfold wf_writer in Hw. rewrite Hp in Hw. apply Hw.
Qed.

Theorem ack_has_receiver n s l wl c k e : reachable mp n s ->
  nth_error (ws s) l = Some wl -> pc wl = WLUnlock c k e -> k < lmerged c ->
  exists i, step mp s (AAck l i) <> None.
Proof.
  intros R Hl Hp Hk. destruct (ack_receivers n s l wl c k e R Hl Hp) as [Ha _].
  destruct (find_measure waitack waitackp (ws s)) as (i & w & Hi & Hw); [reflexivity | lia |].
  apply waitackp_pos in Hw. exists i. unfold step, getw. rewrite Hl, Hi, Hp, Hw.
  apply Nat.ltb_lt in Hk. rewrite Hk. discriminate.
Qed.

(* end of a group: hand-over to exactly one waiting writer, or release; never both, never neither *)
Theorem unlock_end n s l wl c k e : reachable mp n s ->
  nth_error (ws s) l = Some wl -> pc wl = WLUnlock c k e -> lmerged c <= k ->
  sumf waitack (ws s) = 0 /\
  match lover c with
  | Some _ => step mp s (ARelease l) = None /\ sumf mwait (ws s) = 1 /\ exists o, step mp s (AHandover l o) <> None
  | None => step mp s (ARelease l) <> None /\ sumf mwait (ws s) = 0 /\ forall o, step mp s (AHandover l o) = None
  end.
Proof.
  intros R Hl Hp Hk. pose proof (reachable_inv mp n s R) as Hv.
  pose proof (holds_pc _ _ Hp eq_refl) as H1.
  destruct (leader_sums s l wl Hv Hl H1) as [Hm Ha]. unfold replydue, ackdue in *. rewrite Hp in *. simpl in *.
  destruct (only_leader s l wl Hv Hl H1) as (_ & _ & _ & _ & _ & _ & _ & Hlk).
  assert (Hkb : (k <? lmerged c) = false) by (apply Nat.ltb_ge; auto).
  split; [lia|]. unfold ctx_over in Hm. destruct (lover c) eqn:Eo.
  - split; [unfold step, getw; rewrite Hl, Hp, Hkb, Eo; auto|]. split; auto.
    destruct (find_measure mwait mwaitp (ws s)) as (o & w & Ho & Hw); [reflexivity | lia |].
    apply mwaitp_pos in Hw. exists o. unfold step, getw. rewrite Hl, Ho, Hp, Hw, Hkb, Eo. discriminate.
  - split; [unfold step, getw; rewrite Hl, Hp, Hkb, Eo, Hlk; discriminate|]. split; auto.
    intros o. unfold step, getw. rewrite Hl, Hp. destruct (nth_error (ws s) o); auto. destruct (pc w); auto.
    rewrite Hkb, Eo; auto.
Qed.

Theorem handover_step n s l o s' : reachable mp n s -> step mp s (AHandover l o) = Some s' ->
  lock s' = true /\ owners s' = 1 /\
  (exists wo, nth_error (ws s') o = Some wo /\ pc wo = WLFlush) /\
  (forall j w, j <> o -> nth_error (ws s') j = Some w -> holds w = 0) /\
  sumf mwait (ws s) = 1.
Proof.
  intros R H. pose proof (reachable_inv mp n s R) as Hv. pose proof (step_inv mp _ _ _ Hv H) as Hv'.
  unfold step, getw in H. dm. inversion H; subst; clear H.
  assert (Hn : o <> l) by (apply (pcs_differ (ws s) o l w0 w E0 E); congruence).
  pose proof (holds_pc _ _ E1 eq_refl) as H1.
  destruct (only_leader s l w Hv E H1) as (_ & _ & _ & _ & _ & _ & _ & Hlk).
  destruct (leader_sums s l w Hv E H1) as [Hm _]. unfold replydue in Hm. rewrite E1 in Hm. simpl in Hm.
  unfold ctx_over in Hm. rewrite E4 in Hm.
  set (s' := with_logs _ _ _ _ _ _) in *.
  assert (Ho : nth_error (ws s') o = Some (set_pc w0 WLFlush)).
  { simpl. rewrite nth_upd_other by auto. eapply nth_upd_same; eauto. }
  assert (H2 : holds (set_pc w0 WLFlush) = 1) by reflexivity.
  destruct (only_leader s' o _ Hv' Ho H2) as (Hoth & _ & _ & _ & _ & _ & _ & Hlk').
  pose proof (inv_lock s' Hv') as Hk. rewrite Hlk' in Hk.
  repeat split; auto. eexists; split; eauto.
Qed.

Theorem release_step n s l s' : reachable mp n s -> step mp s (ARelease l) = Some s' ->
  lock s' = false /\ owners s' = 0 /\ sumf mwait (ws s) = 0.
Proof.
  intros R H. pose proof (reachable_inv mp n s R) as Hv. pose proof (step_inv mp _ _ _ Hv H) as Hv'.
  pose proof (inv_lock s' Hv') as Hk.
  unfold step, getw in H. dm. inversion H; subst; clear H.
  pose proof (holds_pc _ _ E0 eq_refl) as H1.
  destruct (leader_sums s l w Hv E H1) as [Hm _]. unfold replydue in Hm. rewrite E0 in Hm. simpl in Hm.
  unfold ctx_over in Hm. rewrite E2 in Hm.
  simpl in *. repeat split; auto.
Qed.

End Theorems.

Definition pending (w : writer) : bool := match pc w with WIdle | WDone _ => false | _ => true end.

Section Progress.
Variable mp : mparams.

(* a writer that owns the lock can always move *)
Lemma leader_enabled n s l wl : reachable mp n s -> nth_error (ws s) l = Some wl -> holds wl = 1 ->
  exists a, arrival a = false /\ step mp s a <> None.
Proof.
  intros R Hl H1. unfold holds in H1. destruct (pc wl) eqn:Hp; simpl in H1; try discriminate.
  - exists (AFlushOk l 0%N). split; auto. unfold step, getw. rewrite Hl, Hp. discriminate.
  - exists (AMergeDone l). split; auto. unfold step, getw. rewrite Hl, Hp. discriminate.
  - destruct (reply_has_receiver mp n s l wl _ _ R Hl Hp) as [i Hi]. exists (AReplyTrue l i). split; auto.
  - exists (AJournalOk l). split; auto. unfold step, getw. rewrite Hl, Hp. discriminate.
  - exists (AApply l). split; auto. unfold step, getw. rewrite Hl, Hp. discriminate.
  - exists (APublish l). split; auto. unfold step, getw. rewrite Hl, Hp. discriminate.
  - destruct (lown c <? lfree c)%N eqn:Er.
    + exists (ARotateSkip l). split; auto. unfold step, getw. rewrite Hl, Hp, Er. discriminate.
    + exists (ARotateOk l). split; auto. unfold step, getw. rewrite Hl, Hp, Er. discriminate.
  - destruct (Nat.lt_ge_cases i (lmerged c)) as [Ek|Ek].
    + destruct (ack_has_receiver mp n s l wl _ _ _ R Hl Hp Ek) as [j Hj]. exists (AAck l j). split; auto.
    + destruct (unlock_end mp n s l wl _ _ _ R Hl Hp Ek) as [_ Hu]. destruct (lover c).
      * destruct Hu as (_ & _ & o & Ho). exists (AHandover l o). split; auto.
      * destruct Hu as (Hr & _). exists (ARelease l). split; auto.
Qed.

(* The system as a whole is never stuck on a pending call: in every reachable state in which some call is
   in progress, an action other than the arrival of a new call is enabled (of some process, not necessarily
   of that caller) — provided no OpenTransaction has returned an error with the lock held (tleak = 0; see
   txn_leak_deadlock for what happens otherwise: goleveldb's OpenTransaction error paths leaked the lock
   before the repair 978440e).
   Without a lock-owning writer the counting invariant leaves nobody waiting for a reply or an
   acknowledgement, so the pending caller is in WSelect or about to return; in WSelect with the lock taken,
   the owner is one of the other processes: either its next move is enabled, or the waiter's own
   ASelPerr / ASelClosed is. *)
Theorem no_lost_writer n s : reachable mp n s -> tleak s = 0 ->
  (exists i w, nth_error (ws s) i = Some w /\ pending w = true) ->
  exists a, arrival a = false /\ step mp s a <> None.
Proof.
  intros R Hleak (i & w & Hi & Hp). pose proof (reachable_inv mp n s R) as Hv.
  destruct (Nat.eq_dec (sumf holds (ws s)) 0) as [H0|H0].
  - destruct (no_leader_sums s Hv H0) as [Hm Ha].
    assert (Hh : holds w = 0) by (pose proof (sumf_ge holds _ _ _ Hi); lia).
    assert (Hmw : mwait w = 0) by (pose proof (sumf_ge mwait _ _ _ Hi); lia).
    assert (Haw : waitack w = 0) by (pose proof (sumf_ge waitack _ _ _ Hi); lia).
    unfold pending, holds, mwait, waitack in Hp, Hh, Hmw, Haw. destruct (pc w) eqn:Epc; simpl in Hp, Hh, Hmw, Haw; try discriminate.
    + (* WSelect *)
      destruct (lock s) eqn:Elk.
      * pose proof (inv_lock s Hv) as Hk. rewrite Elk in Hk. unfold owners in Hk. simpl in Hk.
        destruct (cr s) eqn:Ecr.
        2:{ exists ACRRelease. split; auto. unfold step. rewrite Ecr, Elk. discriminate. }
        destruct (tflush s) eqn:Etf.
        2:{ exists ATxnFlushOk. split; auto. unfold step. rewrite Etf. discriminate. }
        destruct (topen s) eqn:Eto.
        2:{ exists ATxnDone. split; auto. unfold step. rewrite Eto, Elk. discriminate. }
        unfold close_holds in Hk. destruct (cpc s) eqn:Ec.
        4:{ exists (ASelClosed i). split; auto. unfold step, getw, closed. rewrite Hi, Epc, Ec. discriminate. }
        all: destruct (cwl s) eqn:Ew; simpl in Hk; try lia.
        all: destruct (hpc s) eqn:Eh.
        all: try (exists (ASelPerr i); split; auto; unfold step, getw; rewrite Hi, Epc, Eh; discriminate).
        all: try (pose proof (inv_hexit s Hv Eh) as Hx; unfold closed in Hx; rewrite Ec in Hx; discriminate).
        all: try (exists (ASelClosed i); split; auto; unfold step, getw, closed; rewrite Hi, Epc, Ec; discriminate).
        all: destruct (ropend s) eqn:Er;
          try (exists AROSend; split; auto; unfold step; rewrite Er, Eh; discriminate).
        all: pose proof (inv_cwl s Hv Ew Er) as Hx; unfold closed in Hx; rewrite Ec, Eh in Hx;
          destruct Hx; discriminate.
      * exists (ASelLock i). split; auto. unfold step, getw. rewrite Hi, Epc, Elk. discriminate.
    + exists (AReturn i). split; auto. unfold step, getw. rewrite Hi, Epc. discriminate.
  - assert (Hpos : 0 < sumf holds (ws s)) by lia.
    destruct (sumf_pos holds _ Hpos) as (l & wl & Hl & H1).
    assert (holds wl = 1) by (unfold holds in *; pose proof (holdsp_le1 (pc wl)); lia).
    eapply leader_enabled; eauto.
Qed.

End Progress.

Section Leak.
Variable mp : mparams.

(* Before the repair 978440e goleveldb's OpenTransaction returned on a rotateMem / waitCompaction error
   without releasing the write lock.  In the model this is ATxnFlushFail, and it does strand writers: *)
Theorem txn_leak_deadlock :
  exists l s, run mp (init 1) l = Some s /\ tleak s = 1 /\
    (exists w, nth_error (ws s) 0 = Some w /\ pending w = true) /\
    forall a, arrival a = false -> step mp s a = None.
Proof.
  exists [ATxnAcquire; ATxnFlushFail; ACall 0 true false 10%N]. eexists. split; [vm_compute; reflexivity|].
  split; [reflexivity|]. split; [eexists; split; reflexivity|].
  intros a Ha. destruct a; try discriminate; unfold step, getw; cbn [ws lock cpc hpc cwl ropend cr tflush topen tleak closed];
    repeat match goal with
    | |- context [nth_error _ ?i] => is_var i; destruct i as [|[|?]]; cbn [nth_error pc]
    end; auto.
Qed.

End Leak.

Definition gok (g : grec) : Prop := g_acks g = g_merged g /\ length (g_replied g) = g_merged g.

Section Groups.
Variable mp : mparams.

Lemma gok_unlock l c k h e : wf_pc (WLUnlock c k e) -> (k <? lmerged c) = false -> gok (mk_grec l c k h e).
Proof. intros [Hc Hk] Hlt. apply Nat.ltb_ge in Hlt. split; [cbn; lia | exact Hc]. Qed.

Lemma step_glog s a s' : inv s -> Forall gok (glog s) -> step mp s a = Some s' -> Forall gok (glog s').
Proof.
  intros Hv Hg H. pose proof (inv_wf s Hv) as Hw.
  destruct (step_shape _ _ _ _ H) as [He | i w w' t Hi Hm -> | i l w wl w' wl' t Hn Hi Hl Hm ->].
  - destruct He; exact Hg.
  - pose proof (Forall_nth _ _ _ _ Hw Hi) as Hwf. unfold wf_writer in Hwf.
    destruct Hm; try exact Hg. rewrite Hp in Hwf.
    apply Forall_app; split; [exact Hg|]. constructor; [|constructor]. apply gok_unlock; assumption.
  - pose proof (Forall_nth _ _ _ _ Hw Hl) as Hwf. unfold wf_writer in Hwf.
    destruct Hm; try exact Hg. rewrite Hpl in Hwf.
    apply Forall_app; split; [exact Hg|]. constructor; [|constructor]. apply gok_unlock; assumption.
Qed.

(* every finished unlockWrite has sent exactly `merged` acknowledgements, one per `true` reply *)
Theorem ack_count_finished n s g : reachable mp n s -> In g (glog s) ->
  g_acks g = g_merged g /\ length (g_replied g) = g_merged g.
Proof.
  intros [l H] Hin. assert (Hg : Forall gok (glog s)).
  { exact (run_ind_inv mp (fun s => Forall gok (glog s)) step_glog l _ _ (inv_init n) (Forall_nil _) H). }
  rewrite Forall_forall in Hg. apply Hg; auto.
Qed.

End Groups.

Lemma nth_upd_inv {A} (l : list A) i x j w :
  nth_error (upd l i x) j = Some w -> (j = i /\ w = x) \/ (j <> i /\ nth_error l j = Some w).
Proof.
  revert i j; induction l; intros i j H.
  - destruct i; simpl in H; destruct j; discriminate.
  - destruct i; destruct j; simpl in *.
    + inversion H; auto.
    + right; split; auto.
    + right; split; auto.
    + destruct (IHl _ _ H) as [[-> ->]|[Hn Hj]]; auto.
Qed.

(* what a leader's local variables say about its group: batches = itself + the writers told true
   (+ the one whose reply is being sent), and that one is really waiting for the reply *)
Definition lead_ok (L : list writer) (l : nat) (p : wpc) : Prop :=
  match p with
  | WLReply c x => lbatches c = l :: lreplied c ++ [x] /\ exists wx, nth_error L x = Some wx /\ pc wx = WWaitMerged
  | WLMerge c | WLJournal c | WLApply c | WLPublish c | WLRotate c => lbatches c = l :: lreplied c
  | _ => True
  end.

Definition P2 (L : list writer) : Prop := forall l wl, nth_error L l = Some wl -> lead_ok L l (pc wl).

Definition jok (r : jrecd) : Prop := j_batches r = j_leader r :: j_replied r.

Lemma lead_ok_nonholder L l p : holdsp p = 0 -> lead_ok L l p.
Proof. destruct p; simpl; auto; discriminate. Qed.

(* a writer that is not waiting for a reply moves alone: the requests being answered stay where they are *)
Lemma P2_upd1 L i w w' : P2 L -> nth_error L i = Some w -> pc w <> WWaitMerged ->
  lead_ok (upd L i w') i (pc w') -> P2 (upd L i w').
Proof.
  intros HP Hi Hp Hn l wl Hl. apply nth_upd_inv in Hl. destruct Hl as [[-> ->]|[Hne Hl]]; [exact Hn|].
  pose proof (HP l wl Hl) as Hlo. destruct (pc wl); simpl in *; auto.
  destruct Hlo as [Hb (wx & Hx & Hpx)]. split; [exact Hb|]. exists wx. split; [|exact Hpx].
  rewrite nth_upd_other; [exact Hx|]. intros ->. rewrite Hi in Hx. inversion Hx; subst. exact (Hp Hpx).
Qed.

Lemma two_waiting_same s l wl i x wi wx : inv s ->
  nth_error (ws s) l = Some wl -> holds wl = 1 -> replydue wl = 1 ->
  nth_error (ws s) i = Some wi -> pc wi = WWaitMerged ->
  nth_error (ws s) x = Some wx -> pc wx = WWaitMerged -> i = x.
Proof.
  intros Hv Hl H1 Hr Hi Hpi Hx Hpx. destruct (leader_sums s l wl Hv Hl H1) as [Hm _].
  destruct (Nat.eq_dec i x); auto. exfalso.
  pose proof (sumf_two mwait _ _ _ _ _ Hi Hx n). unfold mwait in H at 1 2. rewrite Hpi, Hpx in H. simpl in H. lia.
Qed.

(* the writer the leader is replying to is the only one waiting for a reply *)
Lemma P2_reply_is_x s l wl c x i wi : inv s -> P2 (ws s) ->
  nth_error (ws s) l = Some wl -> pc wl = WLReply c x -> nth_error (ws s) i = Some wi -> pc wi = WWaitMerged -> i = x.
Proof.
  intros Hv HP Hl Hp Hi Hpi. pose proof (HP l wl Hl) as Hok. rewrite Hp in Hok.
  destruct Hok as [_ (wx & Hx & Hpx)].
  pose proof (holds_pc _ _ Hp eq_refl) as Hh.
  assert (Hr : replydue wl = 1).
  { pose proof (Forall_nth _ _ _ _ (inv_wf s Hv) Hl) as Hw. unfold wf_writer in Hw. rewrite Hp in Hw.
    destruct Hw as [Ho _]. unfold replydue, ctx_over. rewrite Hp. cbn [replyduep]. unfold ctx_over. rewrite Ho. reflexivity. }
  exact (two_waiting_same s l wl i x wi wx Hv Hl Hh Hr Hi Hpi Hx Hpx).
Qed.

(* in a rendezvous the leader owns the lock, so only the two partners can be leading anything *)
Lemma P2_two s i l wl w' wl' : inv s -> nth_error (ws s) l = Some wl -> holds wl = 1 ->
  lead_ok (upd (upd (ws s) i w') l wl') i (pc w') -> lead_ok (upd (upd (ws s) i w') l wl') l (pc wl') ->
  P2 (upd (upd (ws s) i w') l wl').
Proof.
  intros Hv Hl Hh Hi' Hl' j wj Hj. apply nth_upd_inv in Hj. destruct Hj as [[-> ->]|[Hne Hj]]; [exact Hl'|].
  apply nth_upd_inv in Hj. destruct Hj as [[-> ->]|[Hne2 Hj]]; [exact Hi'|].
  apply lead_ok_nonholder. destruct (only_leader s l wl Hv Hl Hh) as [Ho _]. apply (Ho j wj Hne Hj).
Qed.

Section Composition.
Variable mp : mparams.

Lemma step_P2 s a s' : inv s -> P2 (ws s) -> Forall jok (jlog s) -> step mp s a = Some s' ->
  P2 (ws s') /\ Forall jok (jlog s').
Proof.
  intros Hv HP HJ H.
  destruct (step_shape _ _ _ _ H) as [He | i w w' t Hi Hm -> | i l w wl w' wl' t Hn Hi Hl Hm ->]; cbn [ws with_ws].
  - destruct He; split; assumption.
  - pose proof (HP i w Hi) as Hlo. split.
    + (* no writer that moves alone is waiting for a reply *)
      apply (P2_upd1 _ _ _ _ HP Hi); destruct Hm; rewrite Hp in *; try discriminate; cbn [pc set_pc]; split_if;
        cbn [lead_ok flush_ctx lbatches lreplied] in *; auto.
    + destruct Hm; try exact HJ; rewrite Hp in Hlo;
        (apply Forall_app; split; [exact HJ | constructor; [exact Hlo | constructor]]).
  - assert (Hh : holds wl = 1) by (destruct Hm; unfold holds; rewrite Hpl; reflexivity).
    pose proof (HP l wl Hl) as Hlo. split; [|destruct Hm; exact HJ].
    apply (P2_two s i l wl w' wl' Hv Hl Hh); destruct Hm; rewrite Hpl in Hlo; cbn [pc set_pc lead_ok] in *;
      try exact I.
    + unfold merge_decide. destruct (llim c <? wsize w)%N; cbn [lead_ok lbatches lreplied]; [exact Hlo|].
      split; [rewrite Hlo; reflexivity|]. exists (set_pc w WWaitMerged). split; [|reflexivity].
      rewrite nth_upd_other by exact (not_eq_sym Hn). exact (nth_upd_same _ _ _ _ Hi).
    + rewrite (P2_reply_is_x s l wl c x i w Hv HP Hl Hpl Hi Hp). exact (proj1 Hlo).
Qed.

End Composition.

Section Composition2.
Variable mp : mparams.

Lemma P2_init n : P2 (ws (init n)).
Proof.
  intros l wl H. simpl in H. apply nth_error_In in H. apply repeat_spec in H. subst. exact I.
Qed.

Lemma run_P2 l : forall s s', inv s -> P2 (ws s) -> Forall jok (jlog s) -> run mp s l = Some s' ->
  P2 (ws s') /\ Forall jok (jlog s').
Proof.
  intros s s' Hi HP HJ H.
  apply (run_ind_inv mp (fun s => P2 (ws s) /\ Forall jok (jlog s))) with (l := l) (s := s); auto.
  intros s0 a s1 Hv [A B]. exact (step_P2 mp s0 a s1 Hv A B).
Qed.

(* group_atomic, part 1: every journal record written (or attempted) by a leader holds the
   leader's batch followed by exactly the batches of the writers that received `true` from it,
   in that order *)
Theorem journal_composition n s r : reachable mp n s -> In r (jlog s) ->
  j_batches r = j_leader r :: j_replied r.
Proof.
  intros [l H] Hin.
  destruct (run_P2 l _ _ (inv_init n) (P2_init n) (Forall_nil _) H) as [_ HJ].
  rewrite Forall_forall in HJ. apply (HJ r Hin).
Qed.

(* the writer the leader is about to answer `true` is the one whose batch it has just appended *)
Theorem reply_goes_to_requester n s l wl c x i s' : reachable mp n s ->
  nth_error (ws s) l = Some wl -> pc wl = WLReply c x -> step mp s (AReplyTrue l i) = Some s' -> i = x.
Proof.
  intros R Hl Hp Hs. pose proof (reachable_inv mp n s R) as Hv. destruct R as [acts H].
  destruct (run_P2 acts _ _ (inv_init n) (P2_init n) (Forall_nil _) H) as [HP _].
  unfold step, getw in Hs. rewrite Hl, Hp in Hs. destruct (nth_error (ws s) i) eqn:Ei; try discriminate.
  destruct (pc w) eqn:Ep; try discriminate.
  exact (P2_reply_is_x s l wl c x i w Hv HP Hl Hp Ei Ep).
Qed.

End Composition2.

Definition cnt (i : nat) (r : list (nat * res)) : nat := count_occ Nat.eq_dec (map fst r) i.
Definition doneb (p : wpc) : nat := match p with WDone _ => 1 | _ => 0 end.

(* the return log holds exactly the calls that are in WDone, once, with their result *)
Definition R1 (s : state) : Prop :=
  forall i w, nth_error (ws s) i = Some w ->
    cnt i (rlog s) = doneb (pc w) /\ (forall e, In (i, e) (rlog s) -> pc w = WDone e).

Lemma cnt_app i r1 r2 : cnt i (r1 ++ r2) = cnt i r1 + cnt i r2.
Proof. unfold cnt. rewrite map_app, count_occ_app. reflexivity. Qed.

Section Results.
Variable mp : mparams.

Lemma R1_upd1 s t i w w' : R1 s -> rlog t = rlog s -> nth_error (ws s) i = Some w ->
  doneb (pc w) = 0 -> doneb (pc w') = 0 -> R1 (with_ws t (upd (ws s) i w')).
Proof.
  intros HR Hr Hi H0 H0' j v Hj. cbn [ws rlog with_ws] in *. rewrite Hr.
  apply nth_upd_inv in Hj. destruct Hj as [[-> ->]|[Hne Hj]]; [|exact (HR j v Hj)].
  destruct (HR i w Hi) as [Hc Hin]. split; [congruence|].
  intros e He. apply Hin in He. rewrite He in H0. discriminate.
Qed.

Lemma step_R1 s a s' : R1 s -> step mp s a = Some s' -> R1 s'.
Proof.
  intros HR H.
  destruct (step_shape _ _ _ _ H) as [He | i w w' t Hi Hm -> | i l w wl w' wl' t Hn Hi Hl Hm ->].
  - destruct He; exact HR.
  - destruct Hm;
      try (apply (R1_upd1 s _ _ _ _ HR eq_refl Hi); [rewrite Hp | cbn [pc set_pc]; split_if]; reflexivity).
    (* AReturn *)
    intros j v Hj. cbn [ws rlog with_ws with_logs] in *. rewrite cnt_app. unfold cnt at 2. cbn [map fst count_occ].
    apply nth_upd_inv in Hj. destruct Hj as [[-> ->]|[Hne Hj]].
    + destruct (HR i w Hi) as [Hc Hin]. rewrite Hp in *. cbn [doneb] in Hc. rewrite Hc.
      destruct (Nat.eq_dec i i); [|congruence]. split; auto.
      intros e' He. apply in_app_or in He. destruct He as [He|[He|[]]].
      * apply Hin in He. discriminate.
      * inversion He; subst. reflexivity.
    + destruct (HR j v Hj) as [Hc Hin]. destruct (Nat.eq_dec i j); [congruence|]. split; [lia|].
      intros e' He. apply in_app_or in He. destruct He as [He|[He|[]]]; auto. inversion He; congruence.
  - apply (R1_upd1 (with_ws s (upd (ws s) i w')) t l wl wl').
    + apply (R1_upd1 s s i w w' HR eq_refl Hi); destruct Hm; rewrite ?Hp; reflexivity.
    + destruct Hm; reflexivity.
    + cbn [ws with_ws]. rewrite nth_upd_other by exact Hn. exact Hl.
    + destruct Hm; rewrite Hpl; reflexivity.
    + destruct Hm; cbn [pc set_pc]; unfold merge_decide; split_if; reflexivity.
Qed.

Lemma R1_init n : R1 (init n).
Proof.
  intros i w H. simpl in H. apply nth_error_In in H. apply repeat_spec in H. subst. split; auto. intros e [].
Qed.

(* exactly_one_result, part 1: no call is answered twice; a call is answered iff it is in WDone, and
   its logged result is the one it returned; so when the run is over every started call has exactly one *)
Theorem one_result n s i w : reachable mp n s -> nth_error (ws s) i = Some w ->
  cnt i (rlog s) <= 1 /\
  (cnt i (rlog s) = 1 <-> exists e, pc w = WDone e) /\
  (forall e, In (i, e) (rlog s) -> pc w = WDone e).
Proof.
  intros [l H] Hi. pose proof (run_ind mp R1 step_R1 l _ _ (R1_init n) H) as HR. destruct (HR i w Hi) as [Hc Hin].
  rewrite Hc. split; [destruct (pc w); simpl; lia|]. split; auto.
  split; [destruct (pc w); simpl; intros; try discriminate; eauto | intros [e ->]; reflexivity].
Qed.

End Results.

(* the result of the group led by l is e: l is in unlockWrite(.., e), or its finished group says e *)
Definition group_res (L : list writer) (G : list grec) (l : nat) (e : res) : Prop :=
  (exists wl c k, nth_error L l = Some wl /\ pc wl = WLUnlock c k e) \/
  (exists g, In g G /\ g_leader g = l /\ g_res g = e).

Definition member_ok (L : list writer) (G : list grec) (w : writer) : Prop :=
  match wgroup w with
  | None => pc w <> WWaitAck
  | Some l =>
      match pc w with
      | WWaitAck => exists wl, nth_error L l = Some wl /\ holds wl = 1
      | WRet e | WDone e => group_res L G l e
      | _ => False
      end
  end.

Record rinv (L : list writer) (G : list grec) : Prop := {
  r_members : forall i w, nth_error L i = Some w -> member_ok L G w;
  r_leaders : forall g, In g G -> exists wl, nth_error L (g_leader g) = Some wl /\
                                   (pc wl = WRet (g_res g) \/ pc wl = WDone (g_res g));
  r_nodup : NoDup (map g_leader G)
}.

Lemma rinv_single L G i w w' : rinv L G -> nth_error L i = Some w ->
  (holdsp (pc w) = 1 -> holdsp (pc w') = 1) ->
  (forall c k e, pc w = WLUnlock c k e -> exists c' k', pc w' = WLUnlock c' k' e) ->
  (forall e, pc w = WRet e \/ pc w = WDone e -> pc w' = WRet e \/ pc w' = WDone e) ->
  member_ok (upd L i w') G w' ->
  rinv (upd L i w') G.
Proof.
  intros [HM HL HN] Hi Hh Hu Hr Hnew. constructor; auto.
  - intros j v Hj. apply nth_upd_inv in Hj. destruct Hj as [[-> ->]|[Hne Hj]]; auto.
    pose proof (HM j v Hj) as Hv. unfold member_ok in *. destruct (wgroup v) as [l|]; auto.
    assert (Hg : forall e, group_res L G l e -> group_res (upd L i w') G l e).
    { intros e [(wl & c & k & Hl & Hp)|Hg]; [|right; auto]. left.
      destruct (Nat.eq_dec l i) as [->|Hn].
      - rewrite Hi in Hl. inversion Hl; subst. destruct (Hu _ _ _ Hp) as (c' & k' & Hp').
        exists w', c', k'. split; auto. eapply nth_upd_same; eauto.
      - exists wl, c, k. rewrite nth_upd_other; auto. }
    destruct (pc v); auto.
    destruct Hv as (wl & Hl & H1). destruct (Nat.eq_dec l i) as [->|Hn].
    + rewrite Hi in Hl. inversion Hl; subst. exists w'. split; [eapply nth_upd_same; eauto|].
      unfold holds in *. auto.
    + exists wl. rewrite nth_upd_other; auto.
  - intros g Hg. destruct (HL g Hg) as (wl & Hl & Hp). destruct (Nat.eq_dec (g_leader g) i) as [Heq|Hn].
    + rewrite Heq in *. rewrite Hi in Hl. inversion Hl; subst. exists w'. split; [eapply nth_upd_same; eauto|auto].
    + exists wl. rewrite nth_upd_other; auto.
Qed.

(* the leader leaves unlockWrite: its group is finished *)
Lemma rinv_finish L G l wl c k e g : rinv L G -> nth_error L l = Some wl -> pc wl = WLUnlock c k e ->
  g_leader g = l -> g_res g = e ->
  (forall j v, nth_error L j = Some v -> pc v <> WWaitAck) ->
  rinv (upd L l (set_pc wl (WRet e))) (G ++ [g]).
Proof.
  intros [HM HL HN] Hl Hp Hgl Hge Hnw.
  assert (Hnot : ~ In l (map g_leader G)).
  { intros Hin. apply in_map_iff in Hin. destruct Hin as (g' & Hg' & Hin). destruct (HL g' Hin) as (w' & Hw' & Hpw).
    rewrite Hg' in Hw'. rewrite Hl in Hw'. inversion Hw'; subst. rewrite Hp in Hpw. destruct Hpw; discriminate. }
  constructor.
  - intros j v Hj. apply nth_upd_inv in Hj. destruct Hj as [[-> ->]|[Hne Hj]].
    + pose proof (HM l wl Hl) as Hv. unfold member_ok in *. cbn [wgroup set_pc pc]. rewrite Hp in Hv.
      destruct (wgroup wl); [contradiction|discriminate].
    + pose proof (HM j v Hj) as Hv. pose proof (Hnw j v Hj) as Hna. unfold member_ok in *.
      destruct (wgroup v) as [l'|]; auto.
      assert (Hg : forall e', group_res L G l' e' -> group_res (upd L l (set_pc wl (WRet e))) (G ++ [g]) l' e').
      { intros e' [(wl' & c' & k' & Hl' & Hp')|(g' & Hin & Hgl' & Hge')].
        - destruct (Nat.eq_dec l' l) as [->|Hn].
          + rewrite Hl in Hl'. inversion Hl'; subst. rewrite Hp in Hp'. inversion Hp'; subst.
            right. exists g. split; [apply in_or_app; right; left; reflexivity|auto].
          + left. exists wl', c', k'. rewrite nth_upd_other; auto.
        - right. exists g'. split; [apply in_or_app; auto|auto]. }
      destruct (pc v); auto. congruence.
  - intros g' Hin. apply in_app_or in Hin. destruct Hin as [Hin|[<-|[]]].
    + destruct (HL g' Hin) as (w' & Hw' & Hpw). assert (g_leader g' <> l).
      { intros Heq. apply Hnot. apply in_map_iff. exists g'. auto. }
      exists w'. rewrite nth_upd_other; auto.
    + rewrite Hgl, Hge. exists (set_pc wl (WRet e)). split; [eapply nth_upd_same; eauto|left; reflexivity].
  - rewrite map_app. cbn [map]. rewrite Hgl. apply ListLemmas.NoDup_snoc; auto.
Qed.

Lemma group_res_upd L G l e i w w' : group_res L G l e -> nth_error L i = Some w ->
  (forall c k e', pc w <> WLUnlock c k e') -> group_res (upd L i w') G l e.
Proof.
  intros [(wl & c & k & Hl & Hp)|Hg] Hi Hn; [|right; auto]. left.
  assert (l <> i) by (intros ->; rewrite Hi in Hl; inversion Hl; subst; eapply Hn; eauto).
  exists wl, c, k. rewrite nth_upd_other; auto.
Qed.

Lemma no_waitack s : sumf waitack (ws s) = 0 -> forall j v, nth_error (ws s) j = Some v -> pc v <> WWaitAck.
Proof.
  intros H0 j v Hj Hp. pose proof (sumf_ge waitack _ _ _ Hj) as Hge. unfold waitack in Hge at 1.
  rewrite Hp in Hge. simpl in Hge. lia.
Qed.

Definition ingroup (p : wpc) : bool := match p with WWaitAck | WRet _ | WDone _ => true | _ => false end.

(* only a writer that waits for an acknowledgement or has its result belongs to a group *)
Lemma member_none L G w : member_ok L G w -> ingroup (pc w) = false -> wgroup w = None.
Proof. unfold member_ok. destruct (wgroup w); [|reflexivity]. destruct (pc w); try contradiction; discriminate. Qed.

Lemma member_ok_none L G w : wgroup w = None -> pc w <> WWaitAck -> member_ok L G w.
Proof. unfold member_ok. intros -> H. exact H. Qed.

Section MemberResults.
Variable mp : mparams.

Lemma step_rinv s a s' : inv s -> rinv (ws s) (glog s) -> step mp s a = Some s' -> rinv (ws s') (glog s').
Proof.
  intros Hv HR H. pose proof (r_members _ _ HR) as HM.
  destruct (step_shape _ _ _ _ H) as [He | i w w' t Hi Hm -> | i l w wl w' wl' t Hn Hi Hl Hm ->]; cbn [ws with_ws].
  - destruct He; exact HR.
  - pose proof (HM i w Hi) as Hmem.
    destruct Hm; cbn [glog with_logs with_lock];
      (* moves from outside WLUnlock and WRet, by a writer that is in no group *)
      try (apply (rinv_single _ _ _ w _ HR Hi); rewrite ?Hp; cbn [pc set_pc];
           [ split_if; intros; first [reflexivity | discriminate]
           | intros ? ? ? Hx; discriminate Hx
           | intros ? [Hx|Hx]; discriminate Hx
           | apply member_ok_none; cbn [pc set_pc wgroup];
             [ first [reflexivity | apply (member_none _ _ _ Hmem); rewrite Hp; reflexivity]
             | split_if; discriminate ] ]).
    + (* ARelease *)
      pose proof (holds_pc _ _ Hp eq_refl) as Hh.
      destruct (leader_sums s l w Hv Hi Hh) as [_ Ha]. unfold ackdue in Ha. rewrite Hp in Ha. cbn [ackduep] in Ha.
      apply Nat.ltb_ge in Hk.
      apply (rinv_finish _ _ l w c k e (mk_grec l c k None e) HR Hi Hp eq_refl eq_refl). apply no_waitack. lia.
    + (* AReturn *)
      apply (rinv_single _ _ i w _ HR Hi); rewrite ?Hp.
      * discriminate.
      * intros ? ? ? Hx; discriminate Hx.
      * intros e' [Hx|Hx]; inversion Hx; subst. right; reflexivity.
      * unfold member_ok in *. cbn [wgroup set_pc pc]. rewrite Hp in Hmem. destruct (wgroup w); [|discriminate].
        apply (group_res_upd _ _ _ _ _ _ _ Hmem Hi). intros ? ? ? Hx; rewrite Hp in Hx; discriminate Hx.
  - assert (Hh : holds wl = 1) by (destruct Hm; unfold holds; rewrite Hpl; reflexivity).
    pose proof (HM i w Hi) as Hmem. pose proof (HM l wl Hl) as Hmeml.
    assert (Hgl : wgroup wl = None) by (apply (member_none _ _ _ Hmeml); destruct Hm; rewrite Hpl; reflexivity).
    assert (El : nth_error (upd (ws s) i w') l = Some wl) by (rewrite nth_upd_other by exact Hn; exact Hl).
    assert (HR1 : rinv (upd (ws s) i w') (glog s)).
    { apply (rinv_single _ _ i w _ HR Hi); destruct Hm; rewrite ?Hp; cbn [pc set_pc];
        try (intros; first [reflexivity | discriminate]); try (intros ? ? ? Hx; discriminate Hx);
        try (intros ? [Hx|Hx]; discriminate Hx).
      - apply member_ok_none; [apply (member_none _ _ _ Hmem); rewrite Hp; reflexivity | discriminate].
      - unfold member_ok. cbn [wgroup pc]. exists wl. split; assumption.
      - (* the acknowledged writer's leader is the one that owns the lock *)
        unfold member_ok in *. cbn [wgroup set_pc pc]. rewrite Hp in Hmem. destruct (wgroup w) as [l'|]; [|congruence].
        destruct Hmem as (wl' & Hl' & H1').
        assert (l' = l).
        { destruct (Nat.eq_dec l' l); auto. exfalso.
          destruct (only_leader s l wl Hv Hl Hh) as [Ho _]. rewrite (Ho l' wl') in H1'; auto. discriminate. }
        subst l'. left. exists wl, c, k. split; assumption.
      - apply member_ok_none; [apply (member_none _ _ _ Hmem); rewrite Hp; reflexivity | discriminate]. }
    destruct Hm; cbn [glog with_logs];
      try (apply (rinv_single _ _ l wl _ HR1 El); rewrite ?Hpl; cbn [pc set_pc]; unfold merge_decide;
           [ split_if; reflexivity
           | intros ? ? ? Hx; first [discriminate Hx | inversion Hx; subst; eexists; eexists; reflexivity]
           | intros ? [Hx|Hx]; discriminate Hx
           | apply member_ok_none; [exact Hgl | cbn [pc set_pc]; split_if; discriminate] ]).
    (* AHandover *)
    destruct (leader_sums s l wl Hv Hl Hh) as [_ Ha]. unfold ackdue in Ha. rewrite Hpl in Ha. cbn [ackduep] in Ha.
    apply Nat.ltb_ge in Hk.
    apply (rinv_finish _ _ l wl c k e (mk_grec l c k (Some o) e) HR1 El Hpl eq_refl eq_refl).
    intros j v Hj. apply nth_upd_inv in Hj. destruct Hj as [[-> ->]|[Hne Hj]]; [discriminate|].
    apply (no_waitack s) with (j := j); [lia | exact Hj].
Qed.

Lemma rinv_init n : rinv (ws (init n)) (glog (init n)).
Proof.
  constructor; simpl.
  - intros i w H. apply nth_error_In in H. apply repeat_spec in H. subst. unfold member_ok; simpl. discriminate.
  - intros g [].
  - constructor.
Qed.

Lemma reachable_rinv n s : reachable mp n s -> rinv (ws s) (glog s).
Proof.
  intros [l H]. exact (run_ind_inv mp (fun s => rinv (ws s) (glog s)) step_rinv l _ _ (inv_init n) (rinv_init n) H).
Qed.

(* exactly_one_result, part 2: a writer that was told `true` by leader l and has got its result got
   the result of l's group *)
Theorem merged_result_is_groups n s i w l e : reachable mp n s ->
  nth_error (ws s) i = Some w -> wgroup w = Some l -> (pc w = WRet e \/ pc w = WDone e) ->
  group_res (ws s) (glog s) l e.
Proof.
  intros R Hi Hg Hp. pose proof (r_members _ _ (reachable_rinv n s R) i w Hi) as Hm.
  unfold member_ok in Hm. rewrite Hg in Hm. destruct Hp as [Hp|Hp]; rewrite Hp in Hm; exact Hm.
Qed.

(* the leader of a finished group returns that group's result *)
Theorem leader_result_is_groups n s g : reachable mp n s -> In g (glog s) ->
  exists wl, nth_error (ws s) (g_leader g) = Some wl /\ (pc wl = WRet (g_res g) \/ pc wl = WDone (g_res g)).
Proof. intros R Hin. apply (r_leaders _ _ (reachable_rinv n s R) g Hin). Qed.

(* and "the group's result" is well defined: one finished group per leader, and none while it is
   still in unlockWrite *)
Theorem group_res_unique n s l e e' : reachable mp n s ->
  group_res (ws s) (glog s) l e -> group_res (ws s) (glog s) l e' -> e = e'.
Proof.
  intros R H1 H2. pose proof (reachable_rinv n s R) as [HM HL HN].
  assert (Hex : forall wl c k e0 g, nth_error (ws s) l = Some wl -> pc wl = WLUnlock c k e0 ->
                  In g (glog s) -> g_leader g = l -> False).
  { intros wl c k e0 g Hl Hp Hin Hgl. destruct (HL g Hin) as (w' & Hw' & Hpw). rewrite Hgl, Hl in Hw'.
    inversion Hw'; subst. rewrite Hp in Hpw. destruct Hpw; discriminate. }
  destruct H1 as [(wl & c & k & Hl & Hp)|(g & Hin & Hgl & Hge)];
  destruct H2 as [(wl' & c' & k' & Hl' & Hp')|(g' & Hin' & Hgl' & Hge')].
  - rewrite Hl in Hl'. inversion Hl'; subst. rewrite Hp in Hp'. inversion Hp'; auto.
  - exfalso. eapply Hex; eauto.
  - exfalso. eapply Hex; eauto.
  - assert (g = g'); [|subst; congruence].
    clear -HN Hin Hin' Hgl Hgl'. induction (glog s); simpl in *; [contradiction|].
    inversion HN; subst. destruct Hin as [->|Hin]; destruct Hin' as [->|Hin']; auto.
    all: exfalso; match goal with Hx : ~ In _ _ |- _ => apply Hx end; apply in_map_iff;
      eexists; split; [|eassumption]; congruence.
Qed.

End MemberResults.

Definition pendp (p : wpc) : bool := match p with WLApply _ | WLPublish _ => true | _ => false end.

(* leaders that have journalled their group and not yet published the sequence number *)
Fixpoint pend_from (k : nat) (L : list writer) : list nat :=
  match L with
  | [] => []
  | w :: t => (if pendp (pc w) then [k] else []) ++ pend_from (S k) t
  end.

Definition ok_leaders (j : list jrecd) : list nat := map j_leader (filter j_ok j).

Lemma pend_upd_same L : forall k i w w', nth_error L i = Some w -> pendp (pc w) = pendp (pc w') ->
  pend_from k (upd L i w') = pend_from k L.
Proof.
  induction L; intros k i w w' Hi Hp; destruct i; simpl in *; try discriminate.
  - inversion Hi; subst. rewrite Hp. reflexivity.
  - rewrite (IHL _ _ _ _ Hi Hp). reflexivity.
Qed.

Lemma pend_none L : forall k, (forall j v, nth_error L j = Some v -> pendp (pc v) = false) -> pend_from k L = [].
Proof.
  induction L; intros k H; simpl; auto. rewrite (H 0 a eq_refl). simpl. apply IHL.
  intros j v Hj. apply (H (S j) v Hj).
Qed.

Lemma pend_single L : forall k l w, nth_error L l = Some w -> pendp (pc w) = true ->
  (forall j v, j <> l -> nth_error L j = Some v -> pendp (pc v) = false) -> pend_from k L = [k + l].
Proof.
  induction L; intros k l w Hl Hp Ho; destruct l; simpl in *; try discriminate.
  - inversion Hl; subst. rewrite Hp. rewrite pend_none; [rewrite Nat.add_0_r; reflexivity|].
    intros j v Hj. apply (Ho (S j) v); [discriminate|exact Hj].
  - rewrite (Ho 0 a); [|discriminate|reflexivity]. simpl.
    rewrite (IHL (S k) l w Hl Hp); [f_equal; lia|]. intros j v Hn Hj. apply (Ho (S j) v); [congruence|exact Hj].
Qed.

Lemma pendp_holds p : pendp p = true -> holdsp p = 1.
Proof. destruct p; simpl; auto; discriminate. Qed.

Lemma nonholder_not_pend p : holdsp p = 0 -> pendp p = false.
Proof. destruct p; simpl; auto; discriminate. Qed.

Section Publish.
Variable mp : mparams.

Definition pub_inv (s : state) : Prop := ok_leaders (jlog s) = plog s ++ pend_from 0 (ws s).

Lemma ok_leaders_app j r : ok_leaders (j ++ [r]) = ok_leaders j ++ (if j_ok r then [j_leader r] else []).
Proof. unfold ok_leaders. rewrite filter_app, map_app. simpl. destruct (j_ok r); reflexivity. Qed.

Lemma step_pub s a s' : inv s -> pub_inv s -> step mp s a = Some s' -> pub_inv s'.
Proof.
  intros Hv HP H. unfold pub_inv in *.
  destruct (step_shape _ _ _ _ H) as [He | i w w' t Hi Hm -> | i l w wl w' wl' t Hn Hi Hl Hm ->]; cbn [ws with_ws].
  - destruct He; exact HP.
  - destruct Hm; cbn [ws jlog plog with_ws with_logs with_lock];
      (* moves that do not change who is between journal and publish *)
      try (rewrite (pend_upd_same _ _ _ _ _ Hi) by (rewrite Hp; cbn [pc set_pc]; split_if; reflexivity); exact HP).
    + (* AJournalOk *)
      pose proof (holds_pc _ _ Hp eq_refl) as Hh.
      destruct (only_leader s l w Hv Hi Hh) as [Ho _].
      rewrite ok_leaders_app. cbn [j_ok j_leader jrec_of]. rewrite HP.
      rewrite (pend_none (ws s)).
      2:{ intros j v Hj. destruct (Nat.eq_dec j l) as [->|Hne].
          - rewrite Hi in Hj. inversion Hj; subst. rewrite Hp. reflexivity.
          - apply nonholder_not_pend. apply (Ho j v Hne Hj). }
      rewrite (pend_single _ 0 l (set_pc w (WLApply c))); [rewrite app_nil_r; reflexivity | eapply nth_upd_same; eauto | reflexivity |].
      intros j v Hne Hj. rewrite nth_upd_other in Hj by auto. apply nonholder_not_pend. apply (Ho j v Hne Hj).
    + (* AJournalFail *)
      rewrite ok_leaders_app. cbn [j_ok jrec_of]. rewrite app_nil_r.
      rewrite (pend_upd_same _ _ _ _ _ Hi); [exact HP | rewrite Hp; reflexivity].
    + (* APublish *)
      pose proof (holds_pc _ _ Hp eq_refl) as Hh.
      destruct (only_leader s l w Hv Hi Hh) as [Ho _].
      rewrite HP. rewrite (pend_single (ws s) 0 l w Hi); [| rewrite Hp; reflexivity |].
      2:{ intros j v Hne Hj. apply nonholder_not_pend. apply (Ho j v Hne Hj). }
      rewrite (pend_none (upd (ws s) l _)); [rewrite app_nil_r; reflexivity|].
      intros j v Hj. apply nth_upd_inv in Hj. destruct Hj as [[-> ->]|[Hne Hj]]; [reflexivity|].
      apply nonholder_not_pend. apply (Ho j v Hne Hj).
  - rewrite (pend_upd_same _ _ l wl wl').
    + rewrite (pend_upd_same _ _ i w w' Hi); destruct Hm; first [exact HP | rewrite Hp; reflexivity].
    + rewrite nth_upd_other by exact Hn. exact Hl.
    + destruct Hm; rewrite Hpl; cbn [pc set_pc]; unfold merge_decide; split_if; reflexivity.
Qed.

(* group_atomic, part 2: the sequence number is published once per successfully journalled group, in
   journal order; at most one group is journalled and not yet published, and it is the last one *)
Theorem publish_once n s : reachable mp n s ->
  ok_leaders (jlog s) = plog s ++ pend_from 0 (ws s) /\ length (pend_from 0 (ws s)) <= 1.
Proof.
  intros R. pose proof (reachable_inv mp n s R) as Hv. destruct R as [l H]. split.
  - apply (run_ind_inv mp pub_inv step_pub l _ _ (inv_init n)); [|exact H]. unfold pub_inv. simpl. rewrite pend_none; auto.
    intros j v Hj. apply nth_error_In in Hj. apply repeat_spec in Hj. subst. reflexivity.
  - destruct (Nat.eq_dec (sumf holds (ws s)) 0) as [H0|H0].
    + rewrite pend_none; simpl; auto. intros j v Hj. apply nonholder_not_pend.
      pose proof (sumf_ge holds _ _ _ Hj). unfold holds in *. lia.
    + assert (Hpos : 0 < sumf holds (ws s)) by lia. destruct (sumf_pos holds _ Hpos) as (l0 & wl & Hl & H1).
      assert (Hh : holds wl = 1) by (unfold holds in *; pose proof (holdsp_le1 (pc wl)); lia).
      destruct (only_leader s l0 wl Hv Hl Hh) as [Ho _].
      destruct (pendp (pc wl)) eqn:Ep.
      * rewrite (pend_single _ 0 l0 wl Hl Ep); simpl; auto.
        intros j v Hne Hj. apply nonholder_not_pend. apply (Ho j v Hne Hj).
      * rewrite pend_none; simpl; auto. intros j v Hj. destruct (Nat.eq_dec j l0) as [->|Hne].
        -- rewrite Hl in Hj. inversion Hj; subst. exact Ep.
        -- apply nonholder_not_pend. apply (Ho j v Hne Hj).
Qed.

End Publish.

Definition rankp (p : wpc) : nat :=
  match p with
  | WIdle => 30 | WSelect => 28 | WWaitMerged => 20 | WLFlush => 19 | WLMerge _ => 18 | WLReply _ _ => 17
  | WLJournal _ => 16 | WLApply _ => 15 | WLPublish _ => 14 | WLRotate _ => 13 | WLUnlock _ _ _ => 12
  | WWaitAck => 3 | WRet _ => 1 | WDone _ => 0
  end.
Definition rank (w : writer) : nat := rankp (pc w).
Definition mu (s : state) : nat := sumf rank (ws s).

Definition writer_action (a : action) : bool :=
  match a with
  | ACloseCall | ACloseSignal | ACloseLock | ATxnAcquire | ATxnFlushOk | ATxnFlushFail | ATxnDone
  | ACRAcquire | ACRRelease | AROAcquire | AROSend | AROAbort | AHPerr | AHLock | AHExit => false
  | _ => true
  end.

Section Measure.
Variable mp : mparams.

(* every move of a writer strictly decreases mu; the other processes leave it unchanged.  With mu_init
   (mu = 30 * writers at the start) this bounds the writer moves of a run; the bound itself is not stated. *)
Theorem progress_measure s a s' : step mp s a = Some s' ->
  (writer_action a = true -> mu s' < mu s) /\ (writer_action a = false -> mu s' = mu s).
Proof.
  intros H. unfold mu.
  destruct (step_shape _ _ _ _ H) as [He | i w w' t Hi Hm -> | i l w wl w' wl' t Hn Hi Hl Hm ->]; cbn [ws with_ws].
  - destruct He; split; intros Hwa; try discriminate; reflexivity.
  - pose proof (sumf_upd rank _ _ w' _ Hi) as Er. unfold rank in *.
    destruct Hm; rewrite Hp in Er; (split; intros Hwa; [|discriminate]); split_if;
      cbn [pc set_pc rankp] in Er; lia.
  - pose proof (sumf_upd2 rank _ _ _ w' wl' _ _ Hi Hl Hn) as Er. unfold rank in *.
    destruct Hm; rewrite Hp, Hpl in Er; (split; intros Hwa; [|discriminate]); unfold merge_decide in *; split_if;
      cbn [pc set_pc rankp] in Er; lia.
Qed.

Lemma mu_init n : mu (init n) = 30 * n.
Proof.
  unfold mu. cbn [ws init]. induction n; [reflexivity|].
  cbn [repeat sumf]. rewrite IHn. unfold rank. cbn [pc idle_writer rankp]. lia.
Qed.

End Measure.
