(* Conc/RefLoopInv.v — the coupling invariant between the environment protocol's state (env_step) and
   the reference loop's state, and the accounting lemmas (independent of the loop's maps) about the
   counters and the removed tables. *)
From Coq Require Import NArith List Bool Lia.
From GL Require Import Conc.RefLoop Conc.RefLoopLemmas.
From GL Require Mem.ListLemmas.
Import ListNotations.
Open Scope N_scope.

(* tables of a version that the deltas applied so far account for *)
Definition counted (c : ver) : list N := ldiff (v_files c) (v_late c).

(* what EDelta checked, in semantic form: d is the delta of c, n the successor *)
Definition trans_ok (c : ver) (d : delta) (n : ver) : Prop :=
  NoDup (d_added d) /\ NoDup (d_deleted d) /\
  incl (d_deleted d) (counted c) /\ incl (v_late c) (d_added d) /\
  (forall f, ind (counted n) f + ind (d_deleted d) f = ind (counted c) f + ind (d_added d) f) /\
  (forall f, In f (v_late n) -> ~ In f (v_files c)) /\
  (forall f, In f (d_added d) -> In f (v_files c) \/ In f (v_files n)).

Fixpoint chain_wf (ch : list ver) : Prop :=
  match ch with
  | [] => True
  | n :: rest =>
      NoDup (v_files n) /\ incl (v_late n) (v_files n) /\ (v_rel n = true -> has_delta n = true) /\
      match rest with
      | [] => v_files n = []
      | c :: _ =>
          v_id c < v_id n /\
          match v_delta c with Some d => trans_ok c d n | None => v_late n = [] end /\
          (forall f, In f (v_files n) -> ~ In f (v_files c) -> forall x, In x rest -> ~ In f (v_files x))
      end /\
      chain_wf rest
  end.

(* the current version has no delta yet and is not released; only it and its predecessor may lack a delta *)
Definition head_ok (ch : list ver) : Prop :=
  match ch with
  | [] => True
  | h :: rest =>
      v_delta h = None /\ v_rel h = false /\
      match rest with
      | [] => True
      | _ :: rest2 => Forall (fun x => has_delta x = true) rest2
      end
  end.

Definition env_wf (e : envst) : Prop :=
  chain_wf (e_chain e) /\ head_ok (e_chain e) /\
  (forall c, In c (e_chain e) -> v_id c < e_nid e) /\
  (forall c, In c (e_chain e) -> incl (v_files c) (e_seen e)) /\
  NoDup (e_seen e).

Fixpoint find_ver (ch : list ver) (v : N) : option ver :=
  match ch with
  | [] => None
  | c :: ch' => if v_id c =? v then Some c else find_ver ch' v
  end.

(* the delta of c has been applied to the counters *)
Definition applied (nx : N) (c : ver) : bool := has_delta c && (v_id c <? nx).

Definition hold1 (nx : N) (c : ver) (f : N) : N :=
  if negb (v_rel c) && (v_id c <? nx) then ind (v_files c) f else 0.

(* references held for converted, unreleased versions *)
Fixpoint holds (ch : list ver) (nx : N) (f : N) : N :=
  match ch with
  | [] => 0
  | c :: ch' => hold1 nx c f + holds ch' nx f
  end.

(* f belongs to a version whose delta is not applied yet *)
Definition Un (ch : list ver) (nx : N) (f : N) : Prop :=
  exists x, In x ch /\ applied nx x = false /\ In f (v_files x).

(* what the loop's five tables hold under one version id *)
Record entry := {
  en_ref : option (list N);
  en_delta : option delta;
  en_rel : option (option delta);
  en_refd : bool;
  en_ab : bool }.

Definition entry_at (s : state) (v : N) : entry :=
  {| en_ref := mget (ref s) v; en_delta := mget (deltas s) v; en_rel := mget (released s) v;
     en_refd := smem (referenced s) v; en_ab := smem (abandoned s) v |}.

(* what they should hold, given the version with that id in the protocol state (if there is one):
   a version is queued, with its delta once that is known, until [next] passes it, and then counts as
   referenced; if its ERel comes first it waits in [released]; an id below e_nid that no version
   has was abandoned *)
Definition entry_of (nid nx v : N) (oc : option ver) : entry :=
  match oc with
  | Some c =>
      {| en_ref := if negb (v_rel c) && (nx <=? v) then Some (v_files c) else None;
         en_delta := if negb (v_rel c) && (nx <=? v) then v_delta c else None;
         en_rel := if v_rel c && (nx <=? v) then Some (v_delta c) else None;
         en_refd := negb (v_rel c) && (v <? nx);
         en_ab := false |}
  | None =>
      {| en_ref := None; en_delta := None; en_rel := None; en_refd := false;
         en_ab := (nx <=? v) && (v <? nid) |}
  end.

Definition maps_ok (e : envst) (s : state) : Prop :=
  (forall v, entry_at s v = entry_of (e_nid e) (next s) v (find_ver (e_chain e) v)) /\
  next s <= e_nid e /\
  last s = match e_chain e with c :: _ => v_id c | [] => 0 end.

Lemma entry_of_step : forall nid nx v oc, v <> nx -> entry_of nid (nx + 1) v oc = entry_of nid nx v oc.
Proof. intros nid nx v oc H. destruct oc; cbn; rewrite leb_step, ?ltb_step by exact H; reflexivity. Qed.

Lemma maps_update : forall k s s' (E E' : N -> entry),
  (forall v, entry_at s v = E v) ->
  (forall v, v <> k -> entry_at s' v = entry_at s v) ->
  (forall v, v <> k -> E' v = E v) ->
  entry_at s' k = E' k ->
  forall v, entry_at s' v = E' v.
Proof.
  intros k s s' E E' H Hs HE Hk v. destruct (N.eq_dec v k) as [->|Hne]; [exact Hk|].
  rewrite Hs, HE by exact Hne. apply H.
Qed.

(* the removed tables rm against the counters fr, the tables seen so far and the predicate U "in a version
   whose delta is not applied yet": a removed table has count 0, was seen and is not in U; a seen table is
   removed, referenced or in U *)
Record acct (fr : list (N * N)) (rm : list N) (seen : list N) (U : N -> Prop) : Prop := {
  ac_rm : forall f, In f rm -> cnt fr f = 0 /\ In f seen /\ ~ U f;
  ac_seen : forall f, In f seen -> In f rm \/ 1 <= cnt fr f \/ U f;
  ac_nodup : NoDup rm }.

(* The chain (newest first) splits into U (deltas not applied) ++ b :: A (deltas applied), b being the oldest
   version whose delta is not applied: the counters stand at b.  The whole idea is the last equation:
   fileRef f = [f is counted in b] + the references held for converted, unreleased versions. *)
Definition Inv (e : envst) (s : state) (rm : list N) : Prop :=
  env_wf e /\ maps_ok e s /\
  (exists U b A,
     e_chain e = U ++ b :: A /\
     Forall (fun c => applied (next s) c = true) A /\
     Forall (fun c => applied (next s) c = false) (U ++ [b]) /\
     (forall f, cnt (fileRef s) f = ind (counted b) f + holds (e_chain e) (next s) f)) /\
  acct (fileRef s) rm (e_seen e) (Un (e_chain e) (next s)).

(* before the first reference (newSession has not run yet) *)
Definition Inv0 (e : envst) (s : state) (rm : list N) : Prop :=
  e = env_init /\ s = init /\ rm = [].

Lemma acct_iff : forall fr rm seen (U U' : N -> Prop),
  (forall f, U f <-> U' f) -> acct fr rm seen U -> acct fr rm seen U'.
Proof.
  intros fr rm seen U U' H [H1 H2 H3]. constructor; auto.
  - intros f Hf. destruct (H1 f Hf) as (? & ? & ?). repeat split; auto. rewrite <- H. auto.
  - intros f Hf. destruct (H2 f Hf) as [?|[?|?]]; auto. right; right. apply H; auto.
Qed.

(* a new version: its tables that the current version does not hold are new *)
Lemma acct_new_version : forall fr rm seen (U U' : N -> Prop) cur new,
  acct fr rm seen U ->
  (forall f, In f cur -> U f) ->
  (forall f, U' f <-> U f \/ In f new) ->
  (forall f, In f (ldiff new cur) -> ~ In f seen) ->
  acct fr rm (ldiff new cur ++ seen) U'.
Proof.
  intros fr rm seen U U' cur new [H1 H2 H3] Hcur HU' Hfresh. constructor; auto.
  - intros f Hf. destruct (H1 f Hf) as (Hc & Hs & Hn). repeat split; auto.
    + apply in_or_app; auto.
    + rewrite HU'. intros [Hu|Hin]; [contradiction|].
      destruct (in_dec N.eq_dec f cur) as [Hi|Hi]; [apply Hn, Hcur; auto|].
      apply (Hfresh f); auto. apply ldiff_In; auto.
  - intros f Hf. apply in_app_or in Hf. destruct Hf as [Hf|Hf].
    + right; right. apply HU'. right. apply ldiff_In in Hf. tauto.
    + destruct (H2 f Hf) as [?|[?|?]]; auto. right; right. apply HU'; auto.
Qed.

(* the delta d of the oldest version c whose delta is not applied is applied; n is c's successor *)
Lemma delta_core : forall fr rm seen (U U' : N -> Prop) (held : N -> N) c d n,
  acct fr rm seen U ->
  trans_ok c d n ->
  (forall f, cnt fr f = ind (counted c) f + held f) ->
  (forall f, In f (v_files c) -> U f) ->
  (forall f, In f (v_files n) -> U' f) ->
  (forall f, U' f -> U f) ->
  (forall f, U f -> U' f \/ In f (v_files c)) ->
  (forall f, In f (v_files c) -> ~ In f (v_files n) -> ~ U' f) ->
  incl (v_files c) seen ->
  exists fr' out, applyDelta fr d = Ok (fr', out)
    /\ (forall f, cnt fr' f = ind (counted n) f + held f)
    /\ acct fr' (rm ++ out) seen U'.
Proof.
  intros fr rm seen U U' held c [a dl] n [H1 H2 H3] (NDa & NDd & HD & HL & Heq & Hlate & HA) Hcnt HcU HnU HU'U HUU' Hgone Hseen.
  cbn in *.
  destruct (applyDelta_spec fr a dl NDa NDd) as (fr' & out & Happ & Hc' & Hout & NDout).
  { intros f Hin. apply HD in Hin. rewrite Hcnt. rewrite (ind_In _ _ Hin). lia. }
  exists fr', out. split; [exact Happ|].
  assert (Hcnt' : forall f, cnt fr' f = ind (counted n) f + held f).
  { intros f. specialize (Hc' f). specialize (Heq f). rewrite Hcnt in Hc'. lia. }
  split; [exact Hcnt'|].
  (* a removed table of before is not touched by the delta *)
  assert (Hold : forall f, In f rm -> cnt fr' f = 0).
  { intros f Hin. destruct (H1 f Hin) as (Hz & _ & HnU').
    assert (~ In f a).
    { intros Hia. destruct (HA f Hia) as [Hc|Hn]; [apply HnU', HcU; auto|apply HnU', HU'U, HnU; auto]. }
    specialize (Hc' f). rewrite (ind_nIn a f H) in Hc'. lia. }
  constructor.
  - intros f Hin. apply in_app_or in Hin. destruct Hin as [Hin|Hin].
    + destruct (H1 f Hin) as (Hz & Hs & HnU'). repeat split; auto.
    + apply Hout in Hin. destruct Hin as [Hd Hz]. repeat split; auto.
      * apply Hseen. apply HD in Hd. apply ldiff_In in Hd. tauto.
      * assert (Hfc : In f (v_files c)) by (apply HD in Hd; apply ldiff_In in Hd; tauto).
        apply Hgone; auto. intros Hfn.
        specialize (Hcnt' f). rewrite Hz in Hcnt'.
        destruct (ind_cases (counted n) f) as [[Hi _]|[Hi _]].
        -- rewrite (ind_In _ _ Hi) in Hcnt'. lia.
        -- apply Hi. apply ldiff_In. split; auto. intros Hl. apply (Hlate f Hl); auto.
  - intros f Hs. destruct (in_dec N.eq_dec f (rm ++ out)) as [Hi|Hi]; [left; auto|].
    destruct (N.eq_dec (cnt fr' f) 0) as [Hz|Hz]; [|right; left; lia].
    right; right.
    assert (Hnd : ~ In f dl).
    { intros Hd. apply Hi. apply in_or_app. right. apply Hout. auto. }
    assert (Hnr : ~ In f rm) by (intros Hr; apply Hi, in_or_app; auto).
    specialize (Hc' f). rewrite Hz, (ind_nIn dl f Hnd) in Hc'.
    destruct (H2 f Hs) as [Hr|[Hp|Hu]]; [contradiction|lia|].
    destruct (HUU' f Hu) as [?|Hfc]; auto.
    (* f in the old base version, count 0 after: f is late in c, hence added: impossible *)
    exfalso. specialize (Hcnt f).
    assert (cnt fr f = 0) by lia. assert (Hia : ind a f = 0) by lia.
    destruct (ind_cases (counted c) f) as [[_ Hi1]|[Hi0 _]]; [lia|].
    assert (Hl : In f (v_late c)).
    { destruct (in_dec N.eq_dec f (v_late c)); auto. exfalso. apply Hi0. apply ldiff_In. auto. }
    apply HL in Hl. rewrite (ind_In _ _ Hl) in Hia. lia.
  - apply ListLemmas.NoDup_app_intro; auto. intros f Hr Ho. apply Hout in Ho. destruct Ho as [Hd _].
    destruct (H1 f Hr) as (_ & _ & HnU'). apply HnU', HcU. apply HD in Hd. apply ldiff_In in Hd. tauto.
Qed.

(* a converted version is released: its tables lose the reference held for it *)
Lemma rel_core : forall fr rm seen (U : N -> Prop) F (rest : N -> N),
  acct fr rm seen U -> NoDup F -> incl F seen ->
  (forall f, cnt fr f = ind F f + rest f) ->
  (forall f, In f F -> rest f = 0 -> ~ U f) ->
  exists fr' out, del_all fr F = Ok (fr', out)
    /\ (forall f, cnt fr' f = rest f)
    /\ acct fr' (rm ++ out) seen U.
Proof.
  intros fr rm seen U F rest [H1 H2 H3] ND Hseen Hcnt Hgone.
  destruct (del_all_spec F fr ND) as (fr' & out & Hd & Hc & Hout & NDout).
  { intros f Hin. rewrite Hcnt, (ind_In _ _ Hin). lia. }
  exists fr', out. split; [exact Hd|].
  assert (Hcnt' : forall f, cnt fr' f = rest f).
  { intros f. specialize (Hc f). rewrite Hcnt in Hc. lia. }
  split; [exact Hcnt'|]. constructor.
  - intros f Hin. apply in_app_or in Hin. destruct Hin as [Hin|Hin].
    + destruct (H1 f Hin) as (Hz & Hs & Hn). repeat split; auto. specialize (Hc f). lia.
    + apply Hout in Hin. destruct Hin as [Hf Hz]. repeat split; auto.
      apply Hgone; auto. rewrite <- Hcnt'. auto.
  - intros f Hs. destruct (H2 f Hs) as [Hr0|[Hp|Hu]]; auto.
    + left. apply in_or_app; auto.
    + destruct (N.eq_dec (cnt fr' f) 0) as [Hz|Hz]; [|right; left; lia].
      left. apply in_or_app. right. apply Hout. split; auto.
      specialize (Hc f). destruct (ind_cases F f) as [[Hi _]|[_ Hi]]; auto. lia.
  - apply ListLemmas.NoDup_app_intro; auto. intros f Hr0 Ho. apply Hout in Ho. destruct Ho as [Hf _].
    destruct (H1 f Hr0) as (Hz & _ & _). specialize (Hcnt f). rewrite (ind_In _ _ Hf) in Hcnt. lia.
Qed.

(* a queued version is converted: one more reference for each of its tables *)
Lemma convert_core : forall fr rm seen (U : N -> Prop) F,
  acct fr rm seen U -> NoDup F -> (forall f, In f F -> U f) ->
  acct (add_all fr F) rm seen U.
Proof.
  intros fr rm seen U F [H1 H2 H3] ND HU. constructor; auto.
  - intros f Hin. destruct (H1 f Hin) as (Hz & Hs & Hn). repeat split; auto.
    rewrite add_all_cnt by auto. rewrite ind_nIn; [lia|]. intros Hf. apply Hn, HU; auto.
  - intros f Hs. destruct (H2 f Hs) as [?|[Hp|?]]; auto. right; left. rewrite add_all_cnt by auto. lia.
Qed.
