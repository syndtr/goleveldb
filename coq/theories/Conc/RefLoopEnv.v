(* Conc/RefLoopEnv.v — the environment protocol's steps (env_step) in the form the proofs use them,
   and: every step keeps the protocol state well formed (env_wf). *)
From Coq Require Import NArith List Bool Lia.
From GL Require Import Conc.RefLoop Conc.RefLoopLemmas Conc.RefLoopInv Conc.RefLoopChain.
From GL Require Mem.ListLemmas.
Import ListNotations.
Open Scope N_scope.

(* the effect of ERel v on one version of the chain *)
Definition relmap (v : N) (x : ver) : ver := if v_id x =? v then set_rel x else x.

Lemma relmap_id : forall v x, v_id (relmap v x) = v_id x.
Proof. intros. unfold relmap. destruct (v_id x =? v); reflexivity. Qed.
Lemma relmap_files : forall v x, v_files (relmap v x) = v_files x.
Proof. intros. unfold relmap. destruct (v_id x =? v); reflexivity. Qed.
Lemma relmap_late : forall v x, v_late (relmap v x) = v_late x.
Proof. intros. unfold relmap. destruct (v_id x =? v); reflexivity. Qed.
Lemma relmap_delta : forall v x, v_delta (relmap v x) = v_delta x.
Proof. intros. unfold relmap. destruct (v_id x =? v); reflexivity. Qed.
Lemma relmap_neq : forall v x, v_id x <> v -> relmap v x = x.
Proof. intros. unfold relmap. destruct (v_id x =? v) eqn:E; auto. apply N.eqb_eq in E. contradiction. Qed.
Lemma relmap_applied : forall v nx x, applied nx (relmap v x) = applied nx x.
Proof. intros. unfold applied, has_delta. rewrite relmap_delta, relmap_id. reflexivity. Qed.
Lemma relmap_counted : forall v x, counted (relmap v x) = counted x.
Proof. intros. unfold counted. rewrite relmap_files, relmap_late. reflexivity. Qed.

Lemma map_relmap_id : forall v ch, (forall x, In x ch -> v_id x <> v) -> map (relmap v) ch = ch.
Proof.
  induction ch as [|x ch IH]; intros H; cbn; auto.
  rewrite relmap_neq by (apply H; left; auto). rewrite IH; auto. intros y Hy. apply H. right; auto.
Qed.

Lemma filter_relmap : forall v ch,
  filter (fun c => negb (v_rel c)) (map (relmap v) ch) =
  filter (fun c => negb (v_id c =? v)) (filter (fun c => negb (v_rel c)) ch).
Proof.
  induction ch as [|x ch IH]; cbn [map filter]; auto. rewrite IH. unfold relmap.
  destruct (v_id x =? v) eqn:E; destruct (v_rel x); cbn; rewrite ?E; reflexivity.
Qed.

Lemma rel_in_map : forall ch v F ch', chain_wf ch -> rel_in ch v F = Some ch' ->
  ch' = map (relmap v) ch /\
  exists c, find_ver ch v = Some c /\ v_rel c = false /\ has_delta c = true /\ F = v_files c.
Proof.
  induction ch as [|x ch IH]; intros v F ch' Hwf H; cbn in H; [discriminate|].
  cbn [find_ver map]. unfold relmap at 1. destruct (v_id x =? v) eqn:E.
  - destruct (negb (v_rel x) && has_delta x && leqb F (v_files x)) eqn:C; [|discriminate].
    inversion H; subst ch'; clear H.
    apply andb_true_iff in C. destruct C as [C C3]. apply andb_true_iff in C. destruct C as [C1 C2].
    apply negb_true_iff in C1. apply leqb_eq in C3. apply N.eqb_eq in E.
    split.
    + rewrite map_relmap_id; auto. intros y Hy. pose proof (chain_wf_head_lt x ch Hwf y Hy). lia.
    + exists x. auto.
  - destruct (rel_in ch v F) as [ch2|] eqn:R; [|discriminate]. inversion H; subst ch'; clear H.
    destruct (IH v F ch2 (chain_wf_tail _ _ Hwf) R) as (-> & c & Hc).
    split; auto. exists c. auto.
Qed.

Lemma find_ver_relmap : forall v ch v', find_ver (map (relmap v) ch) v' =
  match find_ver ch v' with Some x => Some (relmap v x) | None => None end.
Proof.
  induction ch as [|x ch IH]; intros v'; cbn; auto.
  rewrite relmap_id. destruct (v_id x =? v'); auto.
Qed.

Lemma trans_ok_relmap : forall v c d n, trans_ok c d n -> trans_ok (relmap v c) d (relmap v n).
Proof.
  intros v c d n H. unfold trans_ok in *. rewrite !relmap_counted, !relmap_late, !relmap_files. exact H.
Qed.

Lemma chain_wf_relmap : forall v ch, chain_wf ch ->
  (forall x, In x ch -> v_id x = v -> has_delta x = true) -> chain_wf (map (relmap v) ch).
Proof.
  induction ch as [|n ch IH]; intros Hwf Hd; cbn [map]; auto.
  cbn in Hwf. destruct Hwf as (ND & HL & HR & Hadj & Hwf).
  cbn [chain_wf]. rewrite relmap_files, relmap_late.
  split; [exact ND|]. split; [exact HL|]. split.
  - unfold relmap. destruct (v_id n =? v) eqn:E.
    + intros _. unfold has_delta, set_rel; cbn. apply N.eqb_eq in E. apply (Hd n); auto. left; auto.
    + exact HR.
  - split.
    + destruct ch as [|c ch']; cbn [map]; auto.
      destruct Hadj as (Hlt & Htr & Hfresh). rewrite !relmap_id, relmap_delta, relmap_files. split; [exact Hlt|]. split.
      * destruct (v_delta c); [apply trans_ok_relmap; auto|exact Htr].
      * intros f Hf Hn x Hx.
        change (relmap v c :: map (relmap v) ch') with (map (relmap v) (c :: ch')) in Hx.
        apply in_map_iff in Hx. destruct Hx as (y & <- & Hy). rewrite relmap_files. apply (Hfresh f Hf Hn y Hy).
    + apply IH; auto. intros x Hx. apply Hd. right; auto.
Qed.

Lemma holds_relmap : forall v ch c nx f, chain_wf ch -> find_ver ch v = Some c -> v_rel c = false ->
  holds ch nx f = holds (map (relmap v) ch) nx f + (if v <? nx then ind (v_files c) f else 0).
Proof.
  induction ch as [|x ch IH]; intros c nx f Hwf Hf Hr; cbn in Hf; [discriminate|].
  cbn [map holds]. destruct (v_id x =? v) eqn:E.
  - inversion Hf; subst x; clear Hf. apply N.eqb_eq in E.
    rewrite map_relmap_id by (intros y Hy; pose proof (chain_wf_head_lt c ch Hwf y Hy); lia).
    unfold relmap. rewrite E, N.eqb_refl. unfold hold1, set_rel; cbn. rewrite Hr, E. cbn.
    destruct (v <? nx); lia.
  - rewrite (IH c nx f (chain_wf_tail _ _ Hwf) Hf Hr).
    rewrite relmap_neq by (apply N.eqb_neq; auto). lia.
Qed.

Lemma Un_relmap : forall v ch nx f, Un (map (relmap v) ch) nx f <-> Un ch nx f.
Proof.
  intros. unfold Un. split.
  - intros (x & Hx & Ha & Hf). apply in_map_iff in Hx. destruct Hx as (y & <- & Hy).
    exists y. rewrite relmap_applied in Ha. rewrite relmap_files in Hf. auto.
  - intros (x & Hx & Ha & Hf). exists (relmap v x). rewrite relmap_applied, relmap_files.
    repeat split; auto. apply in_map; auto.
Qed.

Lemma head_ok_relmap : forall v ch, chain_wf ch -> head_ok ch ->
  (forall x, In x ch -> v_id x = v -> has_delta x = true) -> head_ok (map (relmap v) ch).
Proof.
  intros v ch Hwf Hhd Hd. destruct ch as [|h rest]; cbn [map]; auto.
  cbn in Hhd. destruct Hhd as (Hnd & Hnr & Hrest).
  assert (Hh : relmap v h = h).
  { apply relmap_neq. intros E. assert (has_delta h = true) by (apply Hd; auto; left; auto).
    unfold has_delta in H. rewrite Hnd in H. discriminate. }
  rewrite Hh. cbn. split; [exact Hnd|]. split; [exact Hnr|].
  destruct rest as [|c2 rest2]; cbn [map]; auto.
  rewrite Forall_forall in *. intros x Hx. apply in_map_iff in Hx. destruct Hx as (y & <- & Hy).
  unfold has_delta. rewrite relmap_delta. apply Hrest; auto.
Qed.


(* what env_step checks for EDelta, read as propositions, implies the semantic transition relation *)
Lemma edelta_sound : forall c n a d,
  incl (v_late c) (v_files c) ->
  let a' := ldiff a (v_late c) in
  let t := ldiff (v_files c) d ++ a' in
  let late_n := ldiff (v_files n) t in
  NoDup a -> NoDup d -> incl d (ldiff (v_files c) (v_late c)) -> incl (v_late c) a ->
  (forall x, In x a' -> ~ In x (ldiff (v_files c) d)) -> incl t (v_files n) ->
  (forall x, In x late_n -> ~ In x (v_files c)) ->
  trans_ok (set_delta c {| d_added := a; d_deleted := d |}) {| d_added := a; d_deleted := d |} (set_late n late_n).
Proof.
  intros c n a d Hlc a' t late_n Ha Hd Hdi Hla Hdj Hti Hlj.
  unfold trans_ok, counted, set_delta, set_late; cbn [v_files v_late d_added d_deleted].
  assert (Ht : forall f, In f t <-> (In f (v_files c) /\ ~ In f d) \/ (In f a /\ ~ In f (v_late c))).
  { intros f. unfold t, a'. rewrite in_app_iff, !ldiff_In. tauto. }
  assert (Hcn : forall f, In f (ldiff (v_files n) late_n) <-> In f t).
  { intros f. unfold late_n. rewrite !ldiff_In. split.
    - intros [H1 H2]. destruct (in_dec N.eq_dec f t); auto. exfalso. apply H2. auto.
    - intros H. split; [apply Hti; auto|]. intros [_ H2]. contradiction. }
  split; [exact Ha|]. split; [exact Hd|]. split; [exact Hdi|]. split; [exact Hla|]. split; [|split].
  - intros f. rewrite (ind_ext _ t f (Hcn f)). unfold t, a'. rewrite ind_app by (intros H1 H2; apply (Hdj f H2 H1)).
    assert (Hdc : incl d (v_files c)) by (intros x Hx; apply Hdi, ldiff_In in Hx; tauto).
    pose proof (ind_ldiff (v_files c) d f Hdc). pose proof (ind_ldiff a (v_late c) f Hla).
    pose proof (ind_ldiff (v_files c) (v_late c) f Hlc). lia.
  - intros f Hf. apply (Hlj f Hf).
  - intros f Hf. destruct (in_dec N.eq_dec f (v_late c)) as [Lc|Lc].
    + left. apply Hlc; auto.
    + right. apply Hti. apply Ht. right. auto.
Qed.

(* a version as ERef enters it *)
Definition new_ver (v : N) (F : list N) : ver :=
  {| v_id := v; v_files := F; v_late := []; v_delta := None; v_rel := false |}.

Lemma env_ref_inv : forall e v F e', env_step e (ERef v F) = Some e' ->
  v = e_nid e /\ NoDup F /\ settled (e_chain e) = true /\
  match e_chain e with
  | [] => F = [] /\ e' = {| e_nid := v + 1; e_chain := [new_ver v []]; e_seen := e_seen e |}
  | cur :: _ =>
      (forall f, In f (ldiff F (v_files cur)) -> ~ In f (e_seen e)) /\
      e' = {| e_nid := v + 1; e_chain := new_ver v F :: e_chain e; e_seen := ldiff F (v_files cur) ++ e_seen e |}
  end.
Proof.
  intros e v F e' H. cbn in H.
  destruct ((v =? e_nid e) && nodupb F && settled (e_chain e)) eqn:C; [|discriminate].
  rewrite !andb_true_iff, N.eqb_eq, nodupb_NoDup in C. destruct C as ((C & NDF) & Hset). repeat (split; [assumption|]).
  destruct (e_chain e) as [|cur rest].
  - destruct F; [|discriminate]. injection H as <-. auto.
  - destruct (negb (has_delta cur) && disjb (ldiff F (v_files cur)) (e_seen e)) eqn:C2; [|discriminate].
    injection H as <-. apply andb_true_iff in C2. destruct C2 as [_ Hfresh]. rewrite disjb_spec in Hfresh. auto.
Qed.

Lemma env_delta_inv : forall e o a d e', env_step e (EDelta o a d) = Some e' ->
  exists n c rest, e_chain e = n :: c :: rest /\ v_id c = o /\ has_delta c = false /\
    let dl := {| d_added := a; d_deleted := d |} in
    let late_n := ldiff (v_files n) (ldiff (v_files c) d ++ ldiff a (v_late c)) in
    (incl (v_late c) (v_files c) ->
     trans_ok (set_delta c dl) dl (set_late n late_n)) /\
    e' = {| e_nid := e_nid e; e_chain := set_late n late_n :: set_delta c dl :: rest; e_seen := e_seen e |}.
Proof.
  intros e o a d e' H. cbn in H. destruct (e_chain e) as [|n [|c rest]]; try discriminate.
  match type of H with (if ?cond then _ else _) = _ => destruct cond eqn:C; [|discriminate] end.
  injection H as <-.
  rewrite !andb_true_iff, N.eqb_eq, negb_true_iff, !nodupb_NoDup, !inclb_incl, !disjb_spec in C.
  destruct C as ((((((((C1 & C2) & C3) & C4) & C5) & C6) & C7) & C8) & C9).
  exists n, c, rest. split; [reflexivity|]. split; [exact C1|]. split; [exact C2|]. intros dl late_n.
  split; [intros; apply edelta_sound; assumption|reflexivity].
Qed.

Lemma env_abandon_inv : forall e a e', env_step e (EAbandon a) = Some e' ->
  a = e_nid e /\ e' = {| e_nid := a + 1; e_chain := e_chain e; e_seen := e_seen e |}.
Proof.
  intros e a e' H. cbn in H. destruct (a =? e_nid e) eqn:E; [|discriminate]. apply N.eqb_eq in E.
  match type of H with (if ?cond then _ else _) = _ => destruct cond; [|discriminate] end.
  injection H as <-. auto.
Qed.

Lemma env_init_wf : env_wf env_init.
Proof. unfold env_wf; cbn. repeat split; auto; try constructor; intros ? []. Qed.

Lemma env_step_wf : forall e ev e', env_wf e -> env_step e ev = Some e' -> env_wf e'.
Proof.
  intros e ev e' (Hcw & Hhd & Hids & Hseen & Hnds) Hstep. destruct ev as [v F|v F|o a d|v|].
  - destruct (env_ref_inv _ _ _ _ Hstep) as (-> & NDF & Hset & Hsh).
    destruct (e_chain e) as [|cur rest] eqn:Hce.
    + destruct Hsh as (-> & ->). unfold env_wf; cbn [e_chain e_nid e_seen]. split; [|split; [|split; [|split]]]; auto.
      * cbn. split; [constructor|]. split; [intros x []|]. split; [discriminate|]. split; auto.
      * cbn. auto.
      * intros c [<-|[]]. cbn. lia.
      * intros c [<-|[]]. cbn. intros x [].
    + destruct Hsh as (Hfresh & ->). destruct (head_nodelta _ _ Hhd) as [Hcd Hcr].
      assert (Hcur_lt : v_id cur < e_nid e) by (apply Hids; left; auto).
      unfold env_wf; cbn [e_chain e_nid e_seen]. split; [|split; [|split; [|split]]].
      * cbn [chain_wf new_ver v_files v_late v_rel v_id].
        split; [exact NDF|]. split; [intros x []|]. split; [discriminate|]. split; [|exact Hcw].
        split; [exact Hcur_lt|]. rewrite Hcd. split; [reflexivity|].
        intros f Hf Hn x Hx Hfx. apply (Hfresh f); [apply ldiff_In; auto|]. apply (Hseen x Hx); auto.
      * cbn. split; [reflexivity|]. split; [reflexivity|].
        destruct rest as [|c2 rest3]; auto. cbn in Hset. cbn in Hhd. destruct Hhd as (_ & _ & Hr3).
        constructor; auto.
      * intros c [<-|Hc]; [cbn; lia|]. specialize (Hids c Hc). lia.
      * intros c [<-|Hc]; cbn [new_ver v_files].
        -- intros f Hf. apply in_or_app. destruct (in_dec N.eq_dec f (v_files cur)) as [Hi|Hi].
           ++ right. apply (Hseen cur); auto. left; auto.
           ++ left. apply ldiff_In. auto.
        -- intros f Hf. apply in_or_app. right. apply (Hseen c Hc); auto.
      * apply ListLemmas.NoDup_app_intro; auto. apply ldiff_NoDup; auto.
  - cbn in Hstep. destruct (rel_in (e_chain e) v F) as [ch'|] eqn:Hri; [|discriminate]. injection Hstep as <-.
    destruct (rel_in_map _ _ _ _ Hcw Hri) as (-> & c & Hfind & Hrc & Hdc & ->).
    destruct (find_ver_In _ _ _ Hfind) as [Hcin Hcid].
    assert (Hdv : forall x, In x (e_chain e) -> v_id x = v -> has_delta x = true).
    { intros x Hx E. assert (x = c) by (apply (chain_id_inj (e_chain e)); auto; congruence). subst; auto. }
    unfold env_wf; cbn. split; [apply chain_wf_relmap; auto|]. split; [apply head_ok_relmap; auto|].
    split; [|split; auto].
    + intros x Hx. apply in_map_iff in Hx. destruct Hx as (y & <- & Hy). rewrite relmap_id. auto.
    + intros x Hx. apply in_map_iff in Hx. destruct Hx as (y & <- & Hy). rewrite relmap_files. auto.
  - destruct (env_delta_inv _ _ _ _ _ Hstep) as (n & c & rest & Hce & <- & Hcd & Htr & ->).
    rewrite Hce in *. cbn in Hhd. destruct Hhd as (Hnd & Hnr & Hrestd).
    cbn in Hcw. destruct Hcw as (NDn & HLn & _ & (Hlt & Hnl & Hfresh) & (NDc & HLc & HRc & Hadj2 & Hcwr)).
    unfold env_wf; cbn [e_chain e_nid e_seen]. split; [|split; [|split; [|split]]]; auto.
    + cbn [chain_wf]. unfold set_late, set_delta; cbn [v_files v_late v_rel v_id v_delta has_delta].
      split; [exact NDn|]. split; [intros f Hf; apply ldiff_In in Hf; tauto|].
      split; [rewrite Hnr; discriminate|]. split.
      * split; [exact Hlt|]. split; [apply Htr; assumption|].
        intros f Hf Hn x [<-|Hx]; cbn [v_files]; [exact Hn|]. apply (Hfresh f Hf Hn x). right; auto.
      * split; [exact NDc|]. split; [exact HLc|]. split; [reflexivity|]. split; [|exact Hcwr].
        destruct rest as [|c2 rest2]; auto.
    + cbn. unfold set_late, set_delta; cbn. repeat split; auto.
    + intros x [<-|[<-|Hx]]; [apply (Hids n); left; auto|apply (Hids c); right; left; auto|apply Hids; right; right; auto].
    + intros x [<-|[<-|Hx]]; [apply (Hseen n); left; auto|apply (Hseen c); right; left; auto|apply Hseen; right; right; auto].
  - destruct (env_abandon_inv _ _ _ Hstep) as (-> & ->). unfold env_wf; cbn. repeat split; auto.
    intros c Hc. specialize (Hids c Hc). lia.
  - cbn in Hstep. injection Hstep as <-. repeat split; auto.
Qed.
