(* Conc/RefLoopLemmas.v — basic facts about the list maps/sets of Conc/RefLoop.v, the boolean checks
   of the environment protocol, and the counter arithmetic of addFileRef / applyDelta. *)
From Coq Require Import NArith List Bool Lia.
From GL Require Import Conc.RefLoop.
Import ListNotations.
Open Scope N_scope.

Lemma leb_step : forall nx v, v <> nx -> (nx + 1 <=? v) = (nx <=? v).
Proof.
  intros. destruct (nx <=? v) eqn:E; [apply N.leb_le in E; apply N.leb_le; lia|apply N.leb_gt in E; apply N.leb_gt; lia].
Qed.

Lemma ltb_step : forall nx v, v <> nx -> (v <? nx + 1) = (v <? nx).
Proof.
  intros. destruct (v <? nx) eqn:E; [apply N.ltb_lt in E; apply N.ltb_lt; lia|apply N.ltb_ge in E; apply N.ltb_ge; lia].
Qed.

Lemma leb_passed : forall nx, (nx + 1 <=? nx) = false.
Proof. intros. apply N.leb_gt. lia. Qed.

Lemma ltb_passed : forall nx, (nx <? nx + 1) = true.
Proof. intros. apply N.ltb_lt. lia. Qed.

Section MapFacts.
  Context {V : Type}.
  Implicit Types (m : list (N * V)) (k : N).

  Lemma mget_mdel_eq : forall m k, mget (mdel m k) k = None.
  Proof.
    induction m as [|[k' v] m IH]; intros k; cbn; auto.
    destruct (k' =? k) eqn:E; auto. cbn. rewrite E. auto.
  Qed.

  Lemma mget_mdel_neq : forall m k k', k <> k' -> mget (mdel m k) k' = mget m k'.
  Proof.
    induction m as [|[k0 v] m IH]; intros k k' Hne; cbn; auto.
    destruct (k0 =? k) eqn:E.
    - apply N.eqb_eq in E; subst. destruct (k =? k') eqn:E2; [apply N.eqb_eq in E2; congruence|]. auto.
    - cbn. destruct (k0 =? k'); auto.
  Qed.

  Lemma mget_mset_eq : forall m k v, mget (mset m k v) k = Some v.
  Proof. intros. unfold mset. cbn. rewrite N.eqb_refl. reflexivity. Qed.

  Lemma mget_mset_neq : forall m k k' v, k <> k' -> mget (mset m k v) k' = mget m k'.
  Proof.
    intros. unfold mset. cbn. destruct (k =? k') eqn:E; [apply N.eqb_eq in E; congruence|].
    apply mget_mdel_neq; auto.
  Qed.

  Lemma mdel_length_le : forall m k, (length (mdel m k) <= length m)%nat.
  Proof. induction m as [|[k' v] m IH]; intros; cbn; auto. destruct (k' =? k); cbn; specialize (IH k); lia. Qed.

  Lemma mdel_length_lt : forall m k v, mget m k = Some v -> (length (mdel m k) < length m)%nat.
  Proof.
    induction m as [|[k' v'] m IH]; intros k v H; cbn in *; [discriminate|].
    destruct (k' =? k) eqn:E.
    - pose proof (mdel_length_le m k). lia.
    - cbn. specialize (IH k v H). lia.
  Qed.

  Lemma mhas_true : forall m k, mhas m k = true <-> exists v, mget m k = Some v.
  Proof. intros. unfold mhas. destruct (mget m k); split; intros; eauto; try discriminate. destruct H; discriminate. Qed.

  Lemma mhas_false : forall m k, mhas m k = false <-> mget m k = None.
  Proof. intros. unfold mhas. destruct (mget m k); split; intros; auto; discriminate. Qed.
End MapFacts.

Lemma smem_In : forall s k, smem s k = true <-> In k s.
Proof.
  induction s as [|x s IH]; intros k; cbn; [split; [discriminate|tauto]|].
  rewrite orb_true_iff, IH, N.eqb_eq. tauto.
Qed.

Lemma smem_nIn : forall s k, smem s k = false <-> ~ In k s.
Proof. intros. rewrite <- smem_In. destruct (smem s k); split; intros; congruence. Qed.

Lemma smem_sdel_eq : forall s k, smem (sdel s k) k = false.
Proof. induction s as [|x s IH]; intros; cbn; auto. destruct (x =? k) eqn:E; auto. cbn. rewrite E. cbn. auto. Qed.

Lemma smem_sdel_neq : forall s k k', k <> k' -> smem (sdel s k) k' = smem s k'.
Proof.
  induction s as [|x s IH]; intros k k' Hne; cbn; auto.
  destruct (x =? k) eqn:E.
  - apply N.eqb_eq in E; subst. destruct (k =? k') eqn:E2; [apply N.eqb_eq in E2; congruence|]. cbn. auto.
  - cbn. rewrite IH; auto.
Qed.

Lemma smem_sadd_eq : forall s k, smem (sadd s k) k = true.
Proof. intros. unfold sadd. destruct (smem s k) eqn:E; auto. cbn. rewrite N.eqb_refl. auto. Qed.

Lemma smem_sadd_neq : forall s k k', k <> k' -> smem (sadd s k) k' = smem s k'.
Proof.
  intros. unfold sadd. destruct (smem s k); auto. cbn.
  destruct (k =? k') eqn:E; [apply N.eqb_eq in E; congruence|]. auto.
Qed.

Lemma sdel_length_le : forall s k, (length (sdel s k) <= length s)%nat.
Proof. induction s as [|x s IH]; intros; cbn; auto. destruct (x =? k); cbn; specialize (IH k); lia. Qed.

Lemma sdel_length_lt : forall s k, smem s k = true -> (length (sdel s k) < length s)%nat.
Proof.
  induction s as [|x s IH]; intros k H; cbn in *; [discriminate|].
  destruct (x =? k) eqn:E.
  - pose proof (sdel_length_le s k). lia.
  - cbn in *. specialize (IH k H). lia.
Qed.

Lemma nodupb_NoDup : forall l, nodupb l = true <-> NoDup l.
Proof.
  induction l as [|x l IH]; cbn; [split; auto; constructor|].
  rewrite andb_true_iff, negb_true_iff, smem_nIn, IH. split.
  - intros [? ?]; constructor; auto.
  - intros H; inversion H; auto.
Qed.

Lemma inclb_incl : forall a b, inclb a b = true <-> incl a b.
Proof.
  intros. unfold inclb. rewrite forallb_forall. unfold incl.
  split; intros H x Hx; specialize (H x Hx); apply smem_In; auto.
Qed.

Lemma disjb_spec : forall a b, disjb a b = true <-> (forall x, In x a -> ~ In x b).
Proof.
  intros. unfold disjb. rewrite forallb_forall.
  split; intros H x Hx; specialize (H x Hx).
  - apply negb_true_iff in H. apply smem_nIn; auto.
  - apply negb_true_iff. apply smem_nIn; auto.
Qed.

Lemma ldiff_In : forall a b x, In x (ldiff a b) <-> In x a /\ ~ In x b.
Proof. intros. unfold ldiff. rewrite filter_In, negb_true_iff, smem_nIn. tauto. Qed.

Lemma ldiff_NoDup : forall a b, NoDup a -> NoDup (ldiff a b).
Proof. intros. unfold ldiff. apply NoDup_filter; auto. Qed.

Lemma leqb_eq : forall a b, leqb a b = true <-> a = b.
Proof.
  induction a as [|x a IH]; destruct b as [|y b]; cbn; try (split; [discriminate|congruence]); [tauto|].
  rewrite andb_true_iff, N.eqb_eq, IH. split; [intros [? ?]; subst; auto|intros H; inversion H; auto].
Qed.

Definition ind (l : list N) (f : N) : N := if smem l f then 1 else 0.

Lemma ind_In : forall l f, In f l -> ind l f = 1.
Proof. intros. unfold ind. apply smem_In in H. rewrite H. reflexivity. Qed.

Lemma ind_nIn : forall l f, ~ In f l -> ind l f = 0.
Proof. intros. unfold ind. apply smem_nIn in H. rewrite H. reflexivity. Qed.

Lemma ind_le1 : forall l f, ind l f <= 1.
Proof. intros. unfold ind. destruct (smem l f); lia. Qed.

Lemma ind_cases : forall l f, (In f l /\ ind l f = 1) \/ (~ In f l /\ ind l f = 0).
Proof.
  intros. destruct (smem l f) eqn:E.
  - left. apply smem_In in E. split; auto. apply ind_In; auto.
  - right. apply smem_nIn in E. split; auto. apply ind_nIn; auto.
Qed.

Lemma ind_ext : forall a b f, (In f a <-> In f b) -> ind a f = ind b f.
Proof.
  intros a b f H. destruct (ind_cases a f) as [[Ha ->]|[Ha ->]]; symmetry.
  - apply ind_In, H, Ha.
  - apply ind_nIn. intros Hb. apply Ha, H, Hb.
Qed.

Lemma ind_app : forall a b f, (In f a -> ~ In f b) -> ind (a ++ b) f = ind a f + ind b f.
Proof.
  intros a b f H. destruct (ind_cases a f) as [[Ha ->]|[Ha ->]]; destruct (ind_cases b f) as [[Hb ->]|[Hb ->]].
  - destruct (H Ha Hb).
  - apply ind_In, in_or_app. auto.
  - apply ind_In, in_or_app. auto.
  - apply ind_nIn. rewrite in_app_iff. tauto.
Qed.

Lemma ind_ldiff : forall a b f, incl b a -> ind (ldiff a b) f + ind b f = ind a f.
Proof.
  intros a b f H. destruct (ind_cases b f) as [[Hb ->]|[Hb ->]].
  - rewrite (ind_In a) by auto. rewrite ind_nIn; [lia|]. rewrite ldiff_In. tauto.
  - rewrite N.add_0_r. apply ind_ext. rewrite ldiff_In. tauto.
Qed.

Lemma cnt_mset_eq : forall fr f c, cnt (mset fr f c) f = c.
Proof. intros. unfold cnt. rewrite mget_mset_eq. reflexivity. Qed.

Lemma cnt_mset_neq : forall fr f g c, f <> g -> cnt (mset fr f c) g = cnt fr g.
Proof. intros. unfold cnt. rewrite mget_mset_neq; auto. Qed.

Lemma cnt_mdel_eq : forall fr f, cnt (mdel fr f) f = 0.
Proof. intros. unfold cnt. rewrite mget_mdel_eq. reflexivity. Qed.

Lemma cnt_mdel_neq : forall fr f g, f <> g -> cnt (mdel fr f) g = cnt fr g.
Proof. intros. unfold cnt. rewrite mget_mdel_neq; auto. Qed.

Lemma add_all_cnt : forall l fr f, NoDup l -> cnt (add_all fr l) f = cnt fr f + ind l f.
Proof.
  induction l as [|t l IH]; intros fr f ND; cbn.
  - unfold ind; cbn. lia.
  - inversion ND as [|? ? Hn ND']; subst. rewrite IH by auto.
    destruct (N.eq_dec t f) as [->|Hne].
    + rewrite cnt_mset_eq. rewrite (ind_nIn l f Hn). rewrite (ind_In (f :: l) f) by (left; auto). lia.
    + rewrite cnt_mset_neq by auto. unfold ind. cbn.
      destruct (t =? f) eqn:E; [apply N.eqb_eq in E; congruence|]. cbn. reflexivity.
Qed.

(* addFileRef(t, -1) on a table that has a reference *)
Lemma addFileRef_down : forall fr t, 1 <= cnt fr t ->
  exists fr1, addFileRef fr t false = Ok (fr1, cnt fr t - 1) /\
    forall f, cnt fr1 f = if t =? f then cnt fr t - 1 else cnt fr f.
Proof.
  intros fr t H. unfold addFileRef. rewrite (proj2 (N.eqb_neq _ 0)) by lia.
  destruct (N.eqb_spec (cnt fr t) 1) as [E1|E1].
  - rewrite E1. exists (mdel fr t). split; [reflexivity|]. intros f.
    destruct (N.eqb_spec t f) as [<-|Hne]; [apply cnt_mdel_eq|apply cnt_mdel_neq, Hne].
  - exists (mset fr t (cnt fr t - 1)). split; [reflexivity|]. intros f.
    destruct (N.eqb_spec t f) as [<-|Hne]; [apply cnt_mset_eq|apply cnt_mset_neq, Hne].
Qed.

(* release of one reference each for the tables of a duplicate-free list that all have one *)
Lemma del_all_spec : forall l fr,
  NoDup l -> (forall f, In f l -> 1 <= cnt fr f) ->
  exists fr' rm, del_all fr l = Ok (fr', rm)
    /\ (forall f, cnt fr' f + ind l f = cnt fr f)
    /\ (forall f, In f rm <-> In f l /\ cnt fr' f = 0)
    /\ NoDup rm.
Proof.
  induction l as [|t l IH]; intros fr ND Hpos; cbn [del_all].
  - exists fr, []. split; [reflexivity|]. split; [intros; unfold ind; cbn; lia|].
    split; [intros f; cbn; tauto|constructor].
  - inversion ND as [|? ? Hn ND']; subst.
    assert (Ht : 1 <= cnt fr t) by (apply Hpos; left; auto).
    destruct (addFileRef_down fr t Ht) as (fr1 & -> & Hc1).
    destruct (IH fr1 ND') as (fr' & rm & -> & Hc & Hr & Hnd).
    { intros f Hf. rewrite Hc1. destruct (N.eqb_spec t f) as [<-|_]; [contradiction|apply Hpos; right; auto]. }
    assert (Hct : cnt fr' t = cnt fr t - 1).
    { specialize (Hc t). rewrite Hc1, N.eqb_refl, (ind_nIn l t Hn) in Hc. lia. }
    eexists fr', _. split; [reflexivity|]. rewrite <- Hct. split; [|split].
    + intros f. specialize (Hc f). rewrite Hc1 in Hc. unfold ind in *. cbn [smem].
      destruct (N.eqb_spec t f) as [E|_]; cbn [orb]; [subst f; rewrite (proj2 (smem_nIn l t) Hn) in Hc|]; lia.
    + intros f. destruct (N.eqb_spec (cnt fr' t) 0) as [Hz|Hz]; cbn [In]; rewrite Hr; intuition congruence.
    + destruct (cnt fr' t =? 0); [constructor|]; auto. rewrite Hr. tauto.
Qed.

Lemma applyDelta_spec : forall fr a d,
  NoDup a -> NoDup d -> (forall f, In f d -> 1 <= cnt fr f + ind a f) ->
  exists fr' rm, applyDelta fr {| d_added := a; d_deleted := d |} = Ok (fr', rm)
    /\ (forall f, cnt fr' f + ind d f = cnt fr f + ind a f)
    /\ (forall f, In f rm <-> In f d /\ cnt fr' f = 0)
    /\ NoDup rm.
Proof.
  intros fr a d NDa NDd Hpos. unfold applyDelta. cbn.
  destruct (del_all_spec d (add_all fr a) NDd) as (fr' & rm & Hd & Hc & Hr & Hnd).
  { intros f Hf. rewrite add_all_cnt by auto. auto. }
  exists fr', rm. split; [exact Hd|]. split; [|split]; auto.
  intros f. rewrite Hc. apply add_all_cnt; auto.
Qed.
