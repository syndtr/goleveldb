(* Base/UBufferProofs.v — proofs about the model of util.Buffer (Base/UBuffer.v), part 1: the array algebra,
   the growth step, the state invariant, the byte-queue refinement. *)
From GL Require Import Base.NIdxProofs Base.UBuffer.
From GL Require Base.VarintProofs.
From Coq Require Import Lia.

Lemma lenN_takeN l i : lenN (takeN l i) = N.min i (lenN l).
Proof. rewrite takeN_firstn. unfold lenN. rewrite firstn_length. lia. Qed.

Lemma lenN_dropN l i : lenN (dropN l i) = lenN l - i.
Proof. rewrite dropN_skipn. unfold lenN. rewrite skipn_length. lia. Qed.

Lemma take_drop l i : takeN l i ++ dropN l i = l.
Proof. rewrite takeN_firstn, dropN_skipn. apply firstn_skipn. Qed.

Lemma takeN_all l i : lenN l <= i -> takeN l i = l.
Proof. intros H. rewrite takeN_firstn. apply firstn_all2. unfold lenN in H. lia. Qed.

Lemma dropN_all l i : lenN l <= i -> dropN l i = [].
Proof. intros H. rewrite dropN_skipn. apply skipn_all2. unfold lenN in H. lia. Qed.

Lemma takeN_zero l i : i = 0 -> takeN l i = [].
Proof. intros ->. destruct l; reflexivity. Qed.

Lemma dropN_zero l i : i = 0 -> dropN l i = l.
Proof. intros ->. destruct l; reflexivity. Qed.

Lemma takeN_app_ge (a b : bytes) i : lenN a <= i -> takeN (a ++ b) i = a ++ takeN b (i - lenN a).
Proof. intros H. rewrite !takeN_firstn. exact (VarintProofs.takeN_app_ge i a b H). Qed.

Lemma dropN_app_le (a b : bytes) i : i <= lenN a -> dropN (a ++ b) i = dropN a i ++ b.
Proof. intros H. rewrite !dropN_skipn. exact (VarintProofs.dropN_app_le i a b H). Qed.

Lemma dropN_dropN l a b : dropN (dropN l a) b = dropN l (a + b).
Proof. rewrite !dropN_skipn, VarintProofs.skipn_skipn'. f_equal. lia. Qed.

Lemma takeN_takeN l a b : takeN (takeN l a) b = takeN l (N.min a b).
Proof. rewrite !takeN_firstn, firstn_firstn. f_equal. lia. Qed.

Lemma cut2 (l : bytes) a : a <= lenN l -> exists A B, l = A ++ B /\ lenN A = a.
Proof.
  intros H. exists (takeN l a), (dropN l a). split; [symmetry; apply take_drop|].
  rewrite lenN_takeN. lia.
Qed.

Lemma cut3 (l : bytes) a b : a <= b -> b <= lenN l ->
  exists A B C, l = A ++ B ++ C /\ lenN A = a /\ lenN B = b - a.
Proof.
  intros H1 H2. destruct (cut2 l a) as (A & R & -> & HA); [lia|].
  rewrite lenN_app in H2. destruct (cut2 R (b - a)) as (B & C & -> & HB); [lia|].
  now exists A, B, C.
Qed.

#[export] Hint Rewrite @lenN_app @lenN_nil lenN_dropN lenN_takeN zeros_length : lenN.

Ltac lenlia := autorewrite with lenN in *; lia.

Lemma takeN_add l x y : takeN l (x + y) = takeN l x ++ takeN (dropN l x) y.
Proof.
  rewrite !takeN_firstn, dropN_skipn.
  rewrite <- (firstn_skipn (N.to_nat x) (firstn (N.to_nat (x + y)) l)), firstn_firstn, skipn_firstn_comm.
  do 2 f_equal; lia.
Qed.

Lemma lenN_slice l a b : a <= b -> b <= lenN l -> lenN (slice l a b) = b - a.
Proof. intros. unfold slice. lenlia. Qed.

Lemma lenN_slice_le l a b : lenN (slice l a b) <= b - a.
Proof. unfold slice. lenlia. Qed.

Lemma slice_empty l a b : b <= a -> slice l a b = [].
Proof. intros. unfold slice. apply takeN_zero. lia. Qed.

Lemma slice_full l : slice l 0 (lenN l) = l.
Proof. unfold slice. rewrite dropN_zero by reflexivity. apply takeN_all. lia. Qed.

Lemma slice_slice l a b c : a <= b -> b <= c -> slice l a b ++ slice l b c = slice l a c.
Proof.
  intros H1 H2. unfold slice. replace (c - a) with (b - a + (c - b)) by lia.
  rewrite takeN_add, dropN_dropN. do 3 f_equal. lia.
Qed.

Lemma slice_app (X R : bytes) a b : slice (X ++ R) a b = slice X a b ++ slice R (a - lenN X) (b - lenN X).
Proof.
  unfold slice, lenN. rewrite !dropN_skipn, !takeN_firstn, skipn_app, firstn_app, skipn_length.
  do 2 f_equal; [|f_equal]; lia.
Qed.

Lemma slice_app_l (X R : bytes) a b : b <= lenN X -> slice (X ++ R) a b = slice X a b.
Proof. intros H. rewrite slice_app, (slice_empty R) by lia. apply app_nil_r. Qed.

Lemma slice_app_r (X R : bytes) a b : lenN X <= a -> slice (X ++ R) a b = slice R (a - lenN X) (b - lenN X).
Proof. intros H. rewrite slice_app. unfold slice at 1. rewrite dropN_all by lia. reflexivity. Qed.

Lemma takeN_slice l a b k : a <= b -> b <= lenN l -> k <= b - a -> takeN (slice l a b) k = slice l a (a + k).
Proof.
  intros. unfold slice. rewrite takeN_takeN. f_equal. lia.
Qed.

Lemma dropN_slice l a b k : dropN (slice l a b) k = slice l (a + k) b.
Proof.
  unfold slice. rewrite !dropN_skipn, !takeN_firstn.
  rewrite skipn_firstn_comm, VarintProofs.skipn_skipn'. f_equal; [lia|]. f_equal. lia.
Qed.

Lemma slice_cons arr a b :
  a < b -> b <= lenN arr -> slice arr a b = get_at arr a :: slice arr (a + 1) b.
Proof.
  intros H1 H2. rewrite <- (slice_slice arr a (a + 1) b) by lia.
  enough (E : slice arr a (a + 1) = [get_at arr a]) by (rewrite E; reflexivity).
  destruct (cut3 arr a (a + 1)) as (A & B & C & -> & HA & HB); [lia|lia|].
  destruct B as [|y [|z B]]; unfold lenN in HB; cbn [length] in HB; try lia.
  rewrite slice_app_r, get_at_app_ge by lia. replace (a - lenN A) with 0 by lia.
  replace (a + 1 - lenN A) with (lenN [y]) by (cbn; lia).
  rewrite (slice_app_l [y] C) by lia. apply slice_full.
Qed.

Lemma lenN_splice arr lo d : lo + lenN d <= lenN arr -> lenN (splice arr lo d) = lenN arr.
Proof. intros H. unfold splice. lenlia. Qed.

Lemma splice_cut arr pos d :
  pos + lenN d <= lenN arr ->
  exists X Y Z, arr = X ++ Y ++ Z /\ lenN X = pos /\ lenN Y = lenN d /\ splice arr pos d = X ++ d ++ Z.
Proof.
  intros H. destruct (cut3 arr pos (pos + lenN d)) as (X & Y & Z & -> & HX & HY); [lia|lia|].
  exists X, Y, Z. repeat split; [assumption|lia|]. unfold splice. subst pos.
  rewrite takeN_app_exact, (app_assoc X Y Z), dropN_app_ge by lenlia.
  rewrite dropN_zero by lenlia. reflexivity.
Qed.

Lemma slice_splice_below arr pos d a b :
  b <= pos -> pos <= lenN arr -> slice (splice arr pos d) a b = slice arr a b.
Proof.
  intros H Hp. unfold splice. rewrite slice_app_l by lenlia.
  rewrite <- (take_drop arr pos) at 2. rewrite slice_app_l by lenlia. reflexivity.
Qed.

Lemma slice_splice_above arr pos d a b :
  pos + lenN d <= a -> pos + lenN d <= lenN arr -> slice (splice arr pos d) a b = slice arr a b.
Proof.
  intros H Hl. destruct (splice_cut arr pos d Hl) as (X & Y & Z & -> & HX & HY & ->).
  rewrite (app_assoc X d Z), (app_assoc X Y Z), !(slice_app_r (X ++ _)) by lenlia.
  f_equal; lenlia.
Qed.

Lemma dropN_splice_above arr pos d i :
  pos + lenN d <= i -> pos + lenN d <= lenN arr -> dropN (splice arr pos d) i = dropN arr i.
Proof.
  intros H Hl. destruct (splice_cut arr pos d Hl) as (X & Y & Z & -> & HX & HY & ->).
  rewrite (app_assoc X d Z), (app_assoc X Y Z), !(dropN_app_ge (X ++ _)) by lenlia.
  f_equal; lenlia.
Qed.

Lemma slice_splice_end arr lo hi d :
  lo <= hi -> hi + lenN d <= lenN arr ->
  slice (splice arr hi d) lo (hi + lenN d) = slice arr lo hi ++ d.
Proof.
  intros H Hl. destruct (splice_cut arr hi d Hl) as (X & Y & Z & -> & HX & HY & ->).
  rewrite <- (slice_slice _ lo hi) by lia. rewrite (slice_app_l X (d ++ Z)), (slice_app_l X (Y ++ Z)) by lia. f_equal.
  rewrite slice_app_r, slice_app_l by lia. rewrite <- (slice_full d) at 3. f_equal; lia.
Qed.

Lemma slice_splice_exact arr pos d :
  pos + lenN d <= lenN arr -> slice (splice arr pos d) pos (pos + lenN d) = d.
Proof.
  intros H. rewrite slice_splice_end by lia. rewrite slice_empty by lia. reflexivity.
Qed.

Ltac proj := unfold u_cap, u_aid, u_reset, set_len, set_off, set_arr, u_contents in *; cbn [u_old u_arr u_nil u_len u_off] in *.

Lemma contents_len s : u_wf s -> lenN (u_contents s) = u_len s - u_off s.
Proof. intros (H1 & H2 & _). unfold u_contents. apply lenN_slice; assumption. Qed.

Lemma reset_wf s : u_wf s -> u_wf (u_reset s).
Proof. intros (H1 & H2 & H3 & H4). unfold u_wf. proj. repeat split; try lia; auto. Qed.

Lemma set_off_wf s o : u_wf s -> o <= u_len s -> u_wf (set_off s o).
Proof. intros (H1 & H2 & H3 & H4) Ho. unfold u_wf. proj. auto. Qed.

Lemma set_len_wf s l : u_wf s -> u_off s <= l -> l <= u_cap s -> u_wf (set_len s l).
Proof. intros (H1 & H2 & H3 & H4) Ho Hl. unfold u_wf. proj. auto. Qed.

(* a nil b.buf has no cells: only the empty store fits *)
Lemma store_wf s lo d : u_wf s -> lo + lenN d <= u_cap s -> u_wf (set_arr s (splice (u_arr s) lo d)).
Proof.
  intros (H1 & H2 & H3 & H4) Hd. unfold u_wf. proj. rewrite lenN_splice by assumption.
  repeat split; try assumption. intros Hn. rewrite (H4 Hn) in *. rewrite lenN_nil in Hd.
  rewrite (lenN_0 d) by lia. reflexivity.
Qed.

Lemma reslice_some s n s' i :
  try_reslice s n = Some (s', i) ->
  s' = UB (u_old s) (u_arr s) (u_nil s) (u_len s + n) (u_off s) /\ i = u_len s /\ n <= u_cap s - u_len s.
Proof.
  unfold try_reslice. destruct (N.leb_spec n (u_cap s - u_len s)); [|discriminate].
  intros [= <- <-]. auto.
Qed.

Lemma reslice_none s n : try_reslice s n = None -> u_cap s - u_len s < n.
Proof. unfold try_reslice. destruct (N.leb_spec n (u_cap s - u_len s)); [discriminate|auto]. Qed.

(* what a successful growth step guarantees *)
Definition grow_post (s : ubuf) (n : N) (s' : ubuf) (i : N) : Prop :=
  u_wf s' /\ u_off s' <= i /\ u_len s' = i + n /\ i - u_off s' = u_len s - u_off s
  /\ slice (u_arr s') (u_off s') i = u_contents s
  /\ (u_old s' = u_old s \/ (u_nil s = false /\ u_old s' = u_old s ++ [u_arr s])).

(* grow starts by resetting an empty buffer whose b.off is not 0 *)
Definition pre_grow (s : ubuf) : ubuf :=
  if (u_len s - u_off s =? 0) && negb (u_off s =? 0) then u_reset s else s.

Lemma pre_grow_frame s :
  u_old (pre_grow s) = u_old s /\ u_arr (pre_grow s) = u_arr s /\ u_nil (pre_grow s) = u_nil s
  /\ u_len (pre_grow s) - u_off (pre_grow s) = u_len s - u_off s.
Proof.
  unfold pre_grow. destruct (N.eqb_spec (u_len s - u_off s) 0) as [Hm|Hm]; cbn [andb]; [|auto].
  destruct (u_off s =? 0); cbn [negb]; auto.
Qed.

Lemma pre_grow_wf s : u_wf s -> u_wf (pre_grow s) /\ u_contents (pre_grow s) = u_contents s.
Proof.
  intros Hwf. unfold pre_grow. destruct (N.eqb_spec (u_len s - u_off s) 0) as [Hm|Hm]; cbn [andb]; [|auto].
  destruct (u_off s =? 0); cbn [negb]; [auto|]. split; [apply reset_wf, Hwf|].
  destruct Hwf as (H1 & _). proj. rewrite !slice_empty by lia. reflexivity.
Qed.

Lemma pre_grow_off0 s : u_off s = 0 -> pre_grow s = s.
Proof. intros H. unfold pre_grow. rewrite H, andb_false_r. reflexivity. Qed.

Section Grow.
  Variable mx : N.

  Lemma grow_cases s n :
    let s1 := pre_grow s in let m := u_len s1 - u_off s1 in let c := u_cap s1 in
    match u_grow mx s n with
    | GOk s' i =>
        try_reslice s1 n = Some (s', i)
        \/ c - u_len s1 < n
           /\ ((u_nil s1 = true /\ n <= smallBufferSize /\ s' = UB (u_old s1) (zeros smallBufferSize) false n 0 /\ i = 0)
               \/ i = m
                  /\ ((n + m <= c / 2
                       /\ s' = UB (u_old s1) (splice (u_arr s1) 0 (u_contents s1)) (u_nil s1) (m + n) 0)
                      \/ (c + (c + n) <= maxInt /\ 2 * c + n <= mx
                          /\ s' = UB (if u_nil s1 then u_old s1 else u_old s1 ++ [u_arr s1])
                                    (splice (zeros (2 * c + n)) 0 (u_contents s1)) false (m + n) 0)))
    | GPanic s' p => s' = s1 /\ p = PTooLarge /\ (maxInt < 2 * c + n \/ mx < 2 * c + n)
    end.
  Proof.
    intros s1 m c. destruct (pre_grow_frame s) as (_ & _ & _ & Hm). fold s1 in Hm. fold m in Hm.
    unfold u_grow. cbv zeta. change (if _ && _ then u_reset s else s) with s1. rewrite <- Hm. fold c.
    destruct (try_reslice s1 n) as [[s2 j]|] eqn:Hr; [left; reflexivity|]. apply reslice_none in Hr.
    destruct (u_nil s1 && (n <=? smallBufferSize)) eqn:Hsmall.
    { apply andb_prop in Hsmall. destruct Hsmall as (Hnil & Hle). apply N.leb_le in Hle.
      right. split; [exact Hr|]. left. auto. }
    destruct (Z.leb_spec (Z.of_N n) (Z.of_N (c / 2) - Z.of_N m)) as [Hs|Hs].
    { right. split; [exact Hr|]. right. split; [reflexivity|]. left. split; [lia|reflexivity]. }
    destruct (Z.ltb_spec (Z.of_N maxInt - Z.of_N c - Z.of_N n) (Z.of_N c)) as [Hbig|Hbig].
    { repeat split. left. lia. }
    destruct (N.ltb_spec mx (2 * c + n)) as [Hmx|Hmx].
    { repeat split. right. exact Hmx. }
    right. split; [exact Hr|]. right. split; [reflexivity|]. right. repeat split; lia.
  Qed.

  Lemma reslice_post s n s' i : u_wf s -> try_reslice s n = Some (s', i) -> grow_post s n s' i.
  Proof.
    intros Hwf H. apply reslice_some in H. destruct H as (-> & -> & Hn).
    destruct Hwf as (H1 & H2 & H3 & H4). unfold grow_post, u_wf. proj.
    repeat split; try lia; auto.
  Qed.

  Lemma moved_post s n old' arr' nil' :
    u_wf s -> u_len s - u_off s + n <= lenN arr' -> lenN arr' <= maxInt -> (nil' = true -> arr' = []) ->
    u_old s = old' \/ u_nil s = false /\ old' = u_old s ++ [u_arr s] ->
    grow_post s n (UB old' (splice arr' 0 (u_contents s)) nil' (u_len s - u_off s + n) 0) (u_len s - u_off s).
  Proof.
    intros Hwf Hroom Hmax Hnil Hold. pose proof (contents_len s Hwf) as HL.
    unfold grow_post, u_wf. proj. rewrite lenN_splice by lia.
    repeat split; try lia.
    - intros Hn. rewrite (Hnil Hn) in *. rewrite lenN_nil in Hroom. rewrite (lenN_0 (slice _ _ _)) by lia. reflexivity.
    - rewrite <- HL. apply (slice_splice_exact arr' 0). lia.
    - destruct Hold as [<-|Hold]; auto.
  Qed.

  Lemma grow_ok s n s' i : u_wf s -> u_grow mx s n = GOk s' i -> grow_post s n s' i.
  Proof.
    intros Hwf Hg. pose proof (grow_cases s n) as C. rewrite Hg in C. cbv zeta in C.
    destruct (pre_grow_frame s) as (Ho & Ha & Hn & Hm). destruct (pre_grow_wf s Hwf) as (Hwf1 & Hc).
    assert (T : forall s' i, grow_post (pre_grow s) n s' i -> grow_post s n s' i).
    { unfold grow_post. rewrite Hc, Ho, Ha, Hn, Hm. auto. }
    apply T. destruct C as [Hr|(Hr & [(Hnil & Hle & -> & ->)|(-> & [(Hs & ->)|(Hmax & Hmx & ->)])])].
    - apply reslice_post; assumption.
    - destruct Hwf1 as (W1 & W2 & W3 & W4). specialize (W4 Hnil). unfold u_cap in *. rewrite W4 in *.
      rewrite lenN_nil in *. unfold grow_post, u_wf. proj. rewrite zeros_length, W4.
      unfold smallBufferSize, maxInt in *. repeat split; try lia; try discriminate; auto.
    - assert (Hc2 : u_cap (pre_grow s) / 2 <= u_cap (pre_grow s)) by (apply N.div_le_upper_bound; lia).
      pose proof Hwf1 as (W1 & W2 & W3 & W4). apply moved_post; auto. unfold u_cap in *. lia.
    - pose proof Hwf1 as (W1 & W2 & _).
      apply moved_post; rewrite ?zeros_length; auto; try lia; try discriminate.
      destruct (u_nil (pre_grow s)); auto.
  Qed.

  Lemma grow_panic s n s' p :
    u_wf s -> u_grow mx s n = GPanic s' p ->
    p = PTooLarge /\ u_wf s' /\ u_contents s' = u_contents s
    /\ (maxInt < 2 * u_cap s + n \/ mx < 2 * u_cap s + n) /\ s' = pre_grow s.
  Proof.
    intros Hwf Hg. pose proof (grow_cases s n) as C. rewrite Hg in C. destruct C as (-> & -> & C).
    destruct (pre_grow_frame s) as (_ & Ha & _). destruct (pre_grow_wf s Hwf) as (Hwf1 & Hc).
    unfold u_cap in *. rewrite Ha in C. auto.
  Qed.

  Lemma extend_as_grow s n : pre_grow s = s -> u_extend mx s n = u_grow mx s n.
  Proof.
    intros E. unfold u_extend, u_grow. cbv zeta. change (if _ && _ then u_reset s else s) with (pre_grow s).
    rewrite E. destruct (try_reslice s n) as [[s1 j]|]; reflexivity.
  Qed.

  Lemma extend_ok s n s' i : u_wf s -> u_extend mx s n = GOk s' i -> grow_post s n s' i.
  Proof.
    intros Hwf. unfold u_extend. destruct (try_reslice s n) as [[s1 j]|] eqn:Hr.
    - intros [= <- <-]. eapply reslice_post; eauto.
    - apply grow_ok; auto.
  Qed.

  Lemma extend_panic s n s' p :
    u_wf s -> u_extend mx s n = GPanic s' p ->
    p = PTooLarge /\ u_wf s' /\ u_contents s' = u_contents s
    /\ (maxInt < 2 * u_cap s + n \/ mx < 2 * u_cap s + n) /\ s' = pre_grow s.
  Proof.
    intros Hwf. unfold u_extend. destruct (try_reslice s n) as [[s1 j]|]; [discriminate|].
    apply grow_panic; auto.
  Qed.
End Grow.

Lemma index_byte_lt q c i : index_byte q c = Some i -> i < lenN q.
Proof.
  revert i. induction q as [|x q IH]; intros i; cbn [index_byte]; [discriminate|].
  destruct (x =? c).
  - intros [= <-]. rewrite lenN_cons. lia.
  - destruct (index_byte q c) as [j|]; cbn [option_map]; [|discriminate].
    intros [= <-]. specialize (IH j eq_refl). rewrite lenN_cons. lia.
Qed.

Lemma lenN_pos_cons (q : bytes) : 0 < lenN q -> exists c t, q = c :: t.
Proof. destruct q as [|c t]; [cbn; lia|eauto]. Qed.

Lemma store_end s i d :
  u_wf s -> u_off s <= i -> u_len s = i + lenN d ->
  u_wf (set_arr s (splice (u_arr s) i d))
  /\ u_contents (set_arr s (splice (u_arr s) i d)) = slice (u_arr s) (u_off s) i ++ d.
Proof.
  intros Hwf Ho Hl. pose proof Hwf as (H1 & H2 & _). split; [apply store_wf; [exact Hwf|lia]|].
  proj. rewrite Hl. apply slice_splice_end; lia.
Qed.

Section Step.
  Variable mx : N.

  Lemma grow_minread s s1 i :
    u_wf s -> u_grow mx s MinRead = GOk s1 i ->
    u_wf (set_len s1 i) /\ u_contents (set_len s1 i) = u_contents s /\ u_off s1 <= i /\ i + MinRead <= u_cap s1.
  Proof.
    intros Hwf Hg. apply grow_ok in Hg; [|exact Hwf]. destruct Hg as (G1 & G2 & G3 & G4 & G5 & G6).
    pose proof G1 as (A1 & A2 & _). split; [apply set_len_wf; [exact G1|lia..]|]. split; [exact G5|]. split; [exact G2|lia].
  Qed.

  (* ReadFrom, generalised over the data already taken *)
  Lemma readfrom_spec tl : forall sc fuel s n acc q0 s' r,
    u_wf s -> fuel = S (length sc) -> n = lenN acc -> u_contents s = q0 ++ acc ->
    u_readfrom mx fuel s sc tl n = (s', r) ->
    u_wf s' /\
    ((r = RPanic PTooLarge /\ exists k, u_contents s' = q0 ++ acc ++ concat (map rd_data (firstn k sc)))
     \/ (r = RPanic PBounds /\ ~ Forall rd_small sc)
     \/ (r = snd (rf_abs sc tl acc) /\ u_contents s' = q0 ++ fst (rf_abs sc tl acc))).
  Proof.
    assert (Hpanic : forall s acc q0 s1 p, u_wf s -> u_contents s = q0 ++ acc -> u_grow mx s MinRead = GPanic s1 p ->
              u_wf s1 /\ RPanic p = RPanic PTooLarge /\ u_contents s1 = q0 ++ acc ++ []).
    { intros s acc q0 s1 p Hwf Hq Hg. apply grow_panic in Hg; [|exact Hwf]. destruct Hg as (-> & G1 & G2 & _).
      rewrite app_nil_r, G2. auto. }
    induction sc as [|x sc IH]; intros fuel s n acc q0 s' r Hwf -> -> Hq; cbn [length u_readfrom].
    - destruct (u_grow mx s MinRead) as [s1 i|s1 p] eqn:Hg.
      + destruct (grow_minread s s1 i Hwf Hg) as (Hwf2 & Hc2 & _). rewrite Hq in Hc2.
        destruct tl; intros [= <- <-]; (split; [exact Hwf2|]); right; right; cbn [rf_abs fst snd]; auto.
      + intros [= <- <-]. destruct (Hpanic s acc q0 s1 p Hwf Hq Hg) as (W & P & C). split; [exact W|]. left. split; [exact P|]. exists 0%nat. exact C.
    - destruct (u_grow mx s MinRead) as [s1 i|s1 p] eqn:Hg.
      + destruct (grow_minread s s1 i Hwf Hg) as (Hwf2 & Hc2 & Hoi & Hsp). rewrite Hq in Hc2.
        set (s2 := set_len s1 i) in *.
        destruct x as [d e|]; [|intros [= <- <-]; split; [exact Hwf2|]; right; right; cbn [rf_abs fst snd]; auto].
        replace (u_cap s2) with (u_cap s1) by reflexivity.
        destruct (N.ltb_spec (u_cap s1 - i) (lenN d)) as [Hbig|Hfit].
        * intros [= <- <-]. split; [apply (store_wf s2); [exact Hwf2|rewrite lenN_takeN; unfold s2; proj; lia]|].
          right; left. split; [reflexivity|]. intros HF. inversion HF as [|? ? Hs _]. subst.
          unfold rd_small in Hs. cbn [rd_data] in Hs. lia.
        * set (s3 := set_len (set_arr s2 (splice (u_arr s2) i d)) (i + lenN d)).
          destruct (store_end (set_len s2 (i + lenN d)) i d) as (Hwf3 & Hc3);
            [apply set_len_wf; [exact Hwf2|unfold s2; proj; lia..]|exact Hoi|reflexivity|].
          change (u_wf s3) in Hwf3. change (u_contents s3 = u_contents s2 ++ d) in Hc3.
          rewrite Hc2, <- app_assoc in Hc3.
          assert (Hn3 : lenN acc + lenN d = lenN (acc ++ d)) by (rewrite lenN_app; reflexivity).
          destruct e; try (intros [= <- <-]; split; [exact Hwf3|]; right; right; cbn [rf_abs fst snd];
                           rewrite <- Hn3; auto).
          (* a nil error: next round *)
          intros Hrun. cbn [rf_abs].
          specialize (IH (S (length sc)) s3 (lenN acc + lenN d) (acc ++ d) q0 s' r Hwf3 eq_refl Hn3 Hc3 Hrun).
          destruct IH as (I1 & [(-> & k & Hk)|[(-> & Hk)|(Hr & Hk)]]); split; auto.
          -- left. split; [reflexivity|]. exists (S k). cbn [firstn map concat rd_data].
             rewrite Hk. rewrite <- !app_assoc. reflexivity.
          -- right; left. split; [reflexivity|]. intros HF. inversion HF; auto.
      + intros [= <- <-]. destruct (Hpanic s acc q0 s1 p Hwf Hq Hg) as (W & P & C). split; [exact W|]. left. split; [exact P|]. exists 0%nat. exact C.
  Qed.

  Lemma step_spec s o s' r :
    u_wf s -> queue_op o -> u_step mx s o = (s', r) ->
    u_wf s' /\ q_spec (u_contents s) o r (u_contents s').
  Proof.
    intros Hwf Hq. pose proof (contents_len s Hwf) as HL.
    pose proof Hwf as (W1 & W2 & W3 & W4).
    assert (Hempty : u_len s <= u_off s -> u_contents s = [] /\ u_wf (u_reset s) /\ u_contents (u_reset s) = []).
    { intros He. split; [apply lenN_0; lia|]. split; [apply reset_wf, Hwf|]. proj. apply slice_empty. lia. }
    assert (Hdrop : forall k, k <= u_len s - u_off s ->
              u_wf (set_off s (u_off s + k)) /\ u_contents (set_off s (u_off s + k)) = dropN (u_contents s) k
              /\ slice (u_arr s) (u_off s) (u_off s + k) = takeN (u_contents s) k).
    { intros k Hk. split; [apply set_off_wf; [exact Hwf|lia]|]. proj.
      split; symmetry; [apply dropN_slice|apply takeN_slice; lia]. }
    assert (Hwrite : forall p s1 m, grow_post s (lenN p) s1 m ->
              u_wf (set_arr s1 (splice (u_arr s1) m p)) /\ u_contents (set_arr s1 (splice (u_arr s1) m p)) = u_contents s ++ p).
    { intros p s1 m (G1 & G2 & G3 & G4 & G5 & G6). rewrite <- G5. apply store_end; assumption. }
    destruct o; cbn [u_step q_spec]; try contradiction.
    - (* Bytes *) intros [= <- <-]. split; [auto|]. split; [auto|]. eexists; reflexivity.
    - (* String *) intros [= <- <-]. auto.
    - (* Len *) intros [= <- <-]. rewrite HL. auto.
    - (* Truncate *)
      rewrite HL. destruct (Z.eqb_spec n 0) as [->|Hn0].
      + intros [= <- <-]. split; [apply reset_wf, Hwf|].
        replace ((0 <? 0)%Z || (Z.of_N (u_len s - u_off s) <? 0)%Z) with false
          by (symmetry; apply orb_false_intro; [reflexivity|apply Z.ltb_ge; lia]).
        split; [reflexivity|]. rewrite takeN_zero by reflexivity. proj. apply slice_empty. lia.
      + destruct ((n <? 0)%Z || (Z.of_N (u_len s - u_off s) <? n)%Z) eqn:Hc.
        * intros [= <- <-]. auto.
        * apply orb_false_elim in Hc. destruct Hc as (C1 & C2).
          apply Z.ltb_ge in C1. apply Z.ltb_ge in C2.
          intros [= <- <-]. split; [apply set_len_wf; [exact Hwf|lia..]|].
          split; [reflexivity|]. proj. symmetry. apply takeN_slice; lia.
    - (* Reset *) intros [= <- <-]. split; [apply reset_wf, Hwf|]. split; [reflexivity|]. proj. apply slice_empty. lia.
    - (* Alloc *)
      destruct (Z.ltb_spec n 0) as [Hn|Hn]; [intros [= <- <-]; auto|].
      destruct (u_extend mx s (Z.to_N n)) as [s1 m|s1 p] eqn:He.
      + apply extend_ok in He; auto. destruct He as (G1 & G2 & G3 & G4 & G5 & G6).
        intros [= <- <-]. split; [exact G1|]. right.
        destruct G1 as (A1 & A2 & A3 & A4).
        eexists _, _. split; [reflexivity|]. split.
        * rewrite lenN_slice by (proj; lia). lia.
        * rewrite <- G5. proj. symmetry. apply slice_slice; lia.
      + apply extend_panic in He; auto. destruct He as (-> & G1 & G2 & _).
        intros [= <- <-]. split; [exact G1|]. left. auto.
    - (* Grow *)
      destruct (Z.ltb_spec n 0) as [Hn|Hn]; [intros [= <- <-]; auto|].
      destruct (u_grow mx s (Z.to_N n)) as [s1 m|s1 p] eqn:He.
      + apply grow_ok in He; auto. destruct He as (G1 & G2 & G3 & G4 & G5 & G6).
        intros [= <- <-]. pose proof G1 as (A1 & A2 & A3 & A4).
        split; [apply set_len_wf; [exact G1|lia..]|]. split; [auto|]. rewrite <- G5. reflexivity.
      + apply grow_panic in He; auto. destruct He as (-> & G1 & G2 & _).
        intros [= <- <-]. split; [exact G1|]. auto.
    - (* Write *)
      destruct (u_extend mx s (lenN p)) as [s1 m|s1 q] eqn:He.
      + apply extend_ok in He; auto. destruct (Hwrite p s1 m He) as (W & C).
        intros [= <- <-]. split; [exact W|]. right. auto.
      + apply extend_panic in He; auto. destruct He as (-> & G1 & G2 & _).
        intros [= <- <-]. split; [exact G1|]. left. auto.
    - (* WriteByte: Write of one byte *)
      destruct (u_extend mx s 1) as [s1 m|s1 q] eqn:He.
      + apply extend_ok in He; auto. destruct (Hwrite [c] s1 m He) as (W & C).
        intros [= <- <-]. split; [exact W|]. right. auto.
      + apply extend_panic in He; auto. destruct He as (-> & G1 & G2 & _).
        intros [= <- <-]. split; [exact G1|]. left. auto.
    - (* ReadFrom *)
      intros Hrun.
      destruct (readfrom_spec tl sc (S (length sc)) s 0 [] (u_contents s) s' r Hwf eq_refl eq_refl
                  (eq_sym (app_nil_r _)) Hrun) as (I1 & I2).
      split; [exact I1|]. cbn [app] in I2. exact I2.
    - (* WriteTo *)
      destruct (N.ltb_spec (u_off s) (u_len s)) as [Hne|He].
      + destruct (lenN_pos_cons (u_contents s)) as (c & t & Hct); [lia|].
        rewrite Hct. rewrite <- Hct. rewrite HL.
        destruct (N.ltb_spec (u_len s - u_off s) m) as [Hm|Hm]; [intros [= <- <-]; auto|].
        destruct (Hdrop m Hm) as (Hwf1 & Hd & _).
        destruct e; try (intros [= <- <-]; split; [exact Hwf1|]; split; [exact Hd|reflexivity]).
        destruct (N.eqb_spec m (u_len s - u_off s)) as [Hmm|Hmm].
        * intros [= <- <-]. split; [apply reset_wf; exact Hwf1|]. split; [|reflexivity].
          rewrite dropN_all by lia. proj. apply slice_empty. lia.
        * intros [= <- <-]. split; [exact Hwf1|]. split; [exact Hd|reflexivity].
      + destruct (Hempty He) as (-> & Hw & Hc). intros [= <- <-]. auto.
    - (* Read *)
      destruct (N.leb_spec (u_len s) (u_off s)) as [He|Hne].
      + destruct (Hempty He) as (-> & Hw & Hc). intros [= <- <-]. auto.
      + destruct (lenN_pos_cons (u_contents s)) as (c & t & Hct); [lia|].
        rewrite Hct. rewrite <- Hct. rewrite HL.
        destruct (Hdrop (N.min k (u_len s - u_off s))) as (Hw & Hd & Ht); [lia|].
        intros [= <- <-]. rewrite Ht. auto.
    - (* Next *)
      rewrite HL.
      set (n' := if (Z.of_N (u_len s - u_off s) <? n)%Z then Z.of_N (u_len s - u_off s) else n).
      assert (Hn' : (n' <= Z.of_N (u_len s - u_off s))%Z)
        by (subst n'; destruct (Z.ltb_spec (Z.of_N (u_len s - u_off s)) n); lia).
      destruct (Z.ltb_spec n' 0) as [Hneg|Hpos]; [intros [= <- <-]; auto|].
      destruct (Hdrop (Z.to_N n')) as (Hw & Hd & Ht); [lia|].
      intros [= <- <-]. rewrite Ht. split; [exact Hw|]. split; [exact Hd|]. eexists. reflexivity.
    - (* ReadByte *)
      destruct (N.leb_spec (u_len s) (u_off s)) as [He|Hne].
      + destruct (Hempty He) as (-> & Hw & Hc). intros [= <- <-]. auto.
      + assert (Hc : u_contents s = get_at (u_arr s) (u_off s) :: slice (u_arr s) (u_off s + 1) (u_len s))
          by (proj; apply slice_cons; lia).
        rewrite Hc. intros [= <- <-]. split; [apply set_off_wf; [exact Hwf|lia]|]. split; reflexivity.
    - (* ReadBytes *)
      unfold split_at_byte.
      destruct (index_byte (u_contents s) delim) as [i|] eqn:Hi.
      + apply index_byte_lt in Hi. rewrite HL in Hi. rewrite <- N.add_assoc.
        destruct (Hdrop (i + 1)) as (Hw & Hd & Ht); [lia|].
        intros [= <- <-]. rewrite Ht, lenN_takeN, HL.
        replace (N.min (i + 1) (u_len s - u_off s)) with (i + 1) by lia. auto.
      + intros [= <- <-]. split; [apply set_off_wf; [exact Hwf|lia]|].
        split; [proj; apply slice_empty; lia|]. rewrite HL. reflexivity.
    - (* a caller looks at a held slice *)
      intros [= <- <-]. auto.
  Qed.
End Step.

Section Run.
  Variable mx : N.

  Lemma run_refines : forall ops s s' rs,
    u_wf s -> Forall queue_op ops -> u_run mx s ops = (s', rs) ->
    u_wf s' /\ q_chain (u_contents s) ops rs (u_contents s').
  Proof.
    induction ops as [|o ops IH]; intros s s' rs Hwf Hq; cbn [u_run].
    - intros [= <- <-]. cbn [q_chain]. auto.
    - inversion Hq as [|? ? Ho Hops]; subst.
      destruct (u_step mx s o) as [s1 r] eqn:Hs.
      destruct (step_spec mx s o s1 r Hwf Ho Hs) as (W1 & Q1).
      destruct (is_stop r) eqn:Hstop.
      + intros [= <- <-]. split; [exact W1|]. cbn [q_chain]. exists (u_contents s1).
        rewrite Hstop. auto.
      + destruct (u_run mx s1 ops) as [s2 rs'] eqn:Hr. intros [= <- <-].
        destruct (IH s1 s2 rs' W1 Hops Hr) as (W2 & Q2). split; [exact W2|].
        cbn [q_chain]. exists (u_contents s1). rewrite Hstop. auto.
  Qed.

  (* bytes.ErrTooLarge needs a request that would take the array beyond maxInt or beyond what make accepts *)
  Lemma toolarge_needs s o s' :
    u_wf s -> u_step mx s o = (s', RPanic PTooLarge) ->
    match o with OReadFrom _ _ => True | _ => maxInt < 2 * u_cap s + op_need o \/ mx < 2 * u_cap s + op_need o end.
  Proof.
    intros Hwf. destruct o; cbn [u_step op_need]; try exact (fun _ => I); try discriminate.
    - destruct (n =? 0)%Z; [discriminate|]. destruct ((n <? 0)%Z || _); discriminate.
    - destruct (n <? 0)%Z; [discriminate|].
      destruct (u_extend mx s (Z.to_N n)) as [s1 m|s1 p] eqn:He; [discriminate|].
      apply extend_panic in He; auto. intros _. apply He.
    - destruct (n <? 0)%Z; [discriminate|].
      destruct (u_grow mx s (Z.to_N n)) as [s1 m|s1 p] eqn:He; [discriminate|].
      apply grow_panic in He; auto. intros _. apply He.
    - destruct (u_extend mx s (lenN p)) as [s1 m|s1 q] eqn:He; [discriminate|].
      apply extend_panic in He; auto. intros _. apply He.
    - destruct (u_extend mx s 1) as [s1 m|s1 q] eqn:He; [discriminate|].
      apply extend_panic in He; auto. intros _. apply He.
    - destruct (u_off s <? u_len s); [|discriminate].
      destruct (u_len s - u_off s <? m); [discriminate|]. destruct e; [destruct (m =? _)|..]; discriminate.
    - destruct (u_len s <=? u_off s); discriminate.
    - destruct (_ <? 0)%Z; discriminate.
    - destruct (u_len s <=? u_off s); discriminate.
    - destruct (index_byte _ _); discriminate.
    - destruct v as [[a lo] n]. destruct (n <? pos); [discriminate|]. destruct (Nat.eqb a (u_aid s)); discriminate.
  Qed.
End Run.

Lemma rf_abs_teof_returns : forall sc acc, snd (rf_abs sc TEof acc) <> RDiverge.
Proof.
  induction sc as [|x sc IH]; intros acc; cbn [rf_abs snd]; [discriminate|].
  destruct x as [d e|]; [|cbn; discriminate]. destruct e; cbn [snd]; try discriminate. apply IH.
Qed.

(* the call never reports io.EOF: a reader's io.EOF is the success path *)
Lemma rf_abs_never_eof tl : forall sc acc n d, snd (rf_abs sc tl acc) <> RNErr n UEOF d.
Proof.
  induction sc as [|x sc IH]; intros acc n d; cbn [rf_abs snd].
  - destruct tl; discriminate.
  - destruct x as [dd e|]; [|cbn; discriminate]. destruct e; cbn [snd]; try discriminate. apply IH.
Qed.

(* a read of nothing with a nil error is not the end of the input *)
Lemma rf_abs_zero_read tl sc acc : rf_abs (Rd [] UNil :: sc) tl acc = rf_abs sc tl acc.
Proof. cbn [rf_abs]. now rewrite app_nil_r. Qed.

Definition rd_nonneg (x : rd) : Prop := match x with RdNeg => False | _ => True end.

(* a lawful reader (never a negative count) is read until its first io.EOF or error; the count is the number
   of bytes appended *)
Lemma rf_abs_lawful tl : forall sc acc,
  Forall rd_nonneg sc ->
  snd (rf_abs sc tl acc) = RDiverge \/ exists e, snd (rf_abs sc tl acc) = RNErr (lenN (fst (rf_abs sc tl acc))) e [] /\ e <> UEOF.
Proof.
  induction sc as [|x sc IH]; intros acc HF; cbn [rf_abs].
  - destruct tl; cbn [fst snd]; [right; exists UNil; split; [reflexivity|discriminate] | left; reflexivity].
  - inversion HF as [|? ? Hx Hsc]; subst. destruct x as [d e|]; [|contradiction].
    destruct e; cbn [fst snd]; auto.
    + right. exists UNil. split; [reflexivity|discriminate].
    + right. exists UShortWrite. split; [reflexivity|discriminate].
    + right. exists (UOther c). split; [reflexivity|discriminate].
Qed.
