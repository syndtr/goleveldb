(* Base/UBufferAliasProofs.v — proofs about the model of util.Buffer, part 2: which cells a call may store to,
   hence how long a slice returned by Bytes / Next / Alloc keeps its meaning; Alloc on an append-only buffer
   hands out zero bytes. *)
From GL Require Import Base.NIdxProofs Base.UBuffer Base.UBufferProofs.
From Coq Require Import Lia.

Section Alias.
  Variable mx : N.

  (* the calls that are not growing calls store nowhere *)
  Lemma read_op_frame s o s' r :
    write_op o = false -> u_step mx s o = (s', r) -> u_old s' = u_old s /\ u_arr s' = u_arr s.
  Proof.
    destruct o; cbn [write_op u_step]; try discriminate; intros _.
    - intros [= <- _]; auto.
    - intros [= <- _]; auto.
    - intros [= <- _]; auto.
    - destruct (n =? 0)%Z; [intros [= <- _]; auto|].
      destruct ((n <? 0)%Z || _); intros [= <- _]; auto.
    - intros [= <- _]; auto.
    - destruct (u_off s <? u_len s); [|intros [= <- _]; auto].
      destruct (u_len s - u_off s <? m); [intros [= <- _]; auto|].
      destruct e; [destruct (m =? _)|..]; intros [= <- _]; auto.
    - destruct (u_len s <=? u_off s); intros [= <- _]; auto.
    - destruct (_ <? 0)%Z; intros [= <- _]; auto.
    - destruct (u_len s <=? u_off s); intros [= <- _]; auto.
    - destruct (index_byte _ _); intros [= <- _]; auto.
    - intros [= <- _]; auto.
  Qed.

  Lemma run_reads_frame : forall ops s s' rs,
    Forall (fun o => write_op o = false) ops -> u_run mx s ops = (s', rs) ->
    u_old s' = u_old s /\ u_arr s' = u_arr s.
  Proof.
    induction ops as [|o ops IH]; intros s s' rs HF; cbn [u_run].
    - intros [= <- _]. auto.
    - inversion HF as [|? ? Ho Hops]; subst.
      destruct (u_step mx s o) as [s1 r] eqn:Hs.
      destruct (read_op_frame s o s1 r Ho Hs) as (E1 & E2).
      destruct (is_stop r).
      + intros [= <- _]. auto.
      + destruct (u_run mx s1 ops) as [s2 rs'] eqn:Hr. intros [= <- _].
        destruct (IH s1 s2 rs' Hops Hr) as (F1 & F2). split; congruence.
  Qed.

  (* abandoned arrays are never stored to again by the buffer *)
  Lemma grow_old s n :
    match u_grow mx s n with
    | GOk s' _ | GPanic s' _ => exists l, u_old s' = u_old s ++ l
    end.
  Proof.
    pose proof (grow_cases mx s n) as C. cbv zeta in C. destruct (pre_grow_frame s) as (Ho & _).
    assert (H0 : exists l, u_old (pre_grow s) = u_old s ++ l) by (exists []; now rewrite app_nil_r).
    destruct (u_grow mx s n) as [s' i|s' p]; [|destruct C as (-> & _); exact H0].
    destruct C as [Hr|(_ & [(_ & _ & -> & _)|(_ & [(_ & ->)|(_ & _ & ->)])])]; try exact H0.
    - apply reslice_some in Hr. destruct Hr as (-> & _). exact H0.
    - cbn [u_old]. destruct (u_nil (pre_grow s)); [exact H0|]. rewrite Ho. eexists; reflexivity.
  Qed.

  Lemma extend_old s n :
    match u_extend mx s n with
    | GOk s' _ | GPanic s' _ => exists l, u_old s' = u_old s ++ l
    end.
  Proof.
    unfold u_extend, try_reslice. destruct (n <=? u_cap s - u_len s); [exists []; cbn; now rewrite app_nil_r|].
    apply grow_old.
  Qed.

  Lemma readfrom_old tl : forall sc fuel s n s' r,
    u_readfrom mx fuel s sc tl n = (s', r) -> exists l, u_old s' = u_old s ++ l.
  Proof.
    induction sc as [|x sc IH]; intros fuel s n s' r; (destruct fuel as [|f]; cbn [u_readfrom];
      [intros [= <- _]; exists []; now rewrite app_nil_r|]).
    - pose proof (grow_old s MinRead) as G. destruct (u_grow mx s MinRead) as [s1 i|s1 p].
      + destruct tl; intros [= <- _]; exact G.
      + intros [= <- _]; exact G.
    - pose proof (grow_old s MinRead) as G. destruct (u_grow mx s MinRead) as [s1 i|s1 p].
      + destruct G as (l & Hl). destruct x as [d e|].
        * destruct (_ <? lenN d); [intros [= <- _]; exists l; exact Hl|].
          destruct e; try (intros [= <- _]; exists l; exact Hl).
          intros Hrun. apply IH in Hrun. destruct Hrun as (l2 & Hl2). cbn [u_old set_len set_arr] in Hl2.
          exists (l ++ l2). rewrite Hl2, Hl. now rewrite app_assoc.
        * intros [= <- _]. exists l; exact Hl.
      + intros [= <- _]; exact G.
  Qed.

  Lemma step_old s o s' r :
    (match o with OVWrite _ _ _ => False | _ => True end) ->
    u_step mx s o = (s', r) -> exists l, u_old s' = u_old s ++ l.
  Proof.
    intros Ho. destruct (write_op o) eqn:Hw.
    - destruct o; cbn [write_op] in Hw; try discriminate; try contradiction; cbn [u_step].
      + destruct (n <? 0)%Z; [intros [= <- _]; exists []; now rewrite app_nil_r|].
        pose proof (extend_old s (Z.to_N n)) as G. destruct (u_extend mx s (Z.to_N n)); intros [= <- _]; exact G.
      + destruct (n <? 0)%Z; [intros [= <- _]; exists []; now rewrite app_nil_r|].
        pose proof (grow_old s (Z.to_N n)) as G. destruct (u_grow mx s (Z.to_N n)); intros [= <- _]; exact G.
      + pose proof (extend_old s (lenN p)) as G. destruct (u_extend mx s (lenN p)); intros [= <- _]; exact G.
      + pose proof (extend_old s 1) as G. destruct (u_extend mx s 1); intros [= <- _]; exact G.
      + apply readfrom_old.
    - intros Hs. destruct (read_op_frame s o s' r Hw Hs) as (E & _). exists []. now rewrite app_nil_r.
  Qed.

  Lemma old_array_frozen s o s' r a :
    (match o with OVWrite _ _ _ => False | _ => True end) ->
    u_step mx s o = (s', r) -> (a < u_aid s)%nat -> u_array s' a = u_array s a.
  Proof.
    intros Ho Hs Ha. destruct (step_old s o s' r Ho Hs) as (l & Hl).
    unfold u_array, u_aid in *. rewrite Hl. rewrite <- app_assoc.
    rewrite !app_nth1 by assumption. reflexivity.
  Qed.

  (* the current array: on the reslice path only cells at or above len(b.buf) are stored to *)
  Lemma fast_path_keeps_prefix s o s' r :
    u_wf s ->
    (match o with OAlloc n => (0 <= n)%Z | OWrite _ | OWriteByte _ => True | _ => False end) ->
    op_need o <= u_cap s - u_len s ->
    u_step mx s o = (s', r) ->
    u_old s' = u_old s /\ u_off s' = u_off s /\ lenN (u_arr s') = lenN (u_arr s)
    /\ forall a b, b <= u_len s -> slice (u_arr s') a b = slice (u_arr s) a b.
  Proof.
    intros (W1 & W2 & W3 & W4) Ho Hn.
    assert (Hfast : forall n, n <= u_cap s - u_len s ->
              u_extend mx s n = GOk (UB (u_old s) (u_arr s) (u_nil s) (u_len s + n) (u_off s)) (u_len s)).
    { intros n Hle. unfold u_extend, try_reslice. destruct (N.leb_spec n (u_cap s - u_len s)); [reflexivity|lia]. }
    destruct o; try contradiction; cbn [u_step op_need] in *.
    - destruct (Z.ltb_spec n 0); [lia|]. rewrite Hfast by assumption. intros [= <- _]. cbn. auto.
    - rewrite Hfast by assumption. intros [= <- _]. cbn [set_arr u_old u_off u_arr u_len u_nil].
      rewrite lenN_splice by (unfold u_cap in *; lia). repeat split; auto.
      intros a b Hb. apply slice_splice_below; [lia|unfold u_cap in *; lia].
    - rewrite Hfast by assumption. intros [= <- _]. cbn [set_arr u_old u_off u_arr u_len u_nil].
      assert (Hl1 : lenN [c] = 1) by reflexivity.
      rewrite lenN_splice by (unfold u_cap in *; lia). repeat split; auto.
      intros a b Hb. apply slice_splice_below; [lia|unfold u_cap in *; lia].
  Qed.

  Lemma array_current s : u_array s (u_aid s) = u_arr s.
  Proof. unfold u_array, u_aid. rewrite app_nth2 by lia. now rewrite Nat.sub_diag. Qed.

  Lemma returned_view_reads_back s o s' v d :
    u_step mx s o = (s', RView v d) -> view_read s' v = d.
  Proof.
    destruct o; cbn [u_step]; try discriminate.
    - intros [= <- <- <-]. cbn [view_read]. rewrite array_current. unfold u_contents.
      destruct (N.le_ge_cases (u_off s) (u_len s)); [f_equal; lia|].
      rewrite !slice_empty by lia. reflexivity.
    - destruct (n =? 0)%Z; [discriminate|]. destruct ((n <? 0)%Z || _); discriminate.
    - destruct (n <? 0)%Z; [discriminate|]. destruct (u_extend mx s (Z.to_N n)) as [s1 m|s1 p]; [|discriminate].
      intros [= <- <- <-]. cbn [view_read]. rewrite array_current.
      destruct (N.le_ge_cases m (u_len s1)); [f_equal; lia|].
      rewrite !slice_empty by lia. reflexivity.
    - destruct (n <? 0)%Z; [discriminate|]. destruct (u_grow mx s (Z.to_N n)); discriminate.
    - destruct (u_extend mx s (lenN p)); discriminate.
    - destruct (u_extend mx s 1); discriminate.
    - intros H. exfalso. revert H. generalize (S (length sc)) 0. revert s.
      induction sc as [|x sc IH]; intros s f n; (destruct f; cbn [u_readfrom]; [discriminate|]).
      + destruct (u_grow mx s MinRead); [destruct tl|]; discriminate.
      + destruct (u_grow mx s MinRead); [|discriminate]. destruct x as [dd e|]; [|discriminate].
        destruct (_ <? lenN dd); [discriminate|]. destruct e; try discriminate. apply IH.
    - destruct (u_off s <? u_len s); [|discriminate].
      destruct (u_len s - u_off s <? m); [discriminate|]. destruct e; [destruct (m =? _)|..]; discriminate.
    - destruct (u_len s <=? u_off s); discriminate.
    - destruct (_ <? 0)%Z; [discriminate|]. intros [= <- <- <-]. cbn [view_read].
      match goal with |- slice (u_array ?t _) _ _ = _ => rewrite (array_current t : u_array t (u_aid s) = u_arr s) end.
      reflexivity.
    - destruct (u_len s <=? u_off s); discriminate.
    - destruct (index_byte _ _); discriminate.
    - destruct v0 as [[a lo] k]. destruct (k <? pos); [discriminate|]. destruct (Nat.eqb a (u_aid s)); discriminate.
  Qed.

  (* the slice Bytes returns is the contents *)
  Lemma bytes_view_is_contents s s' v d :
    u_step mx s OBytes = (s', RView v d) -> s' = s /\ d = u_contents s /\ view_read s v = u_contents s.
  Proof.
    intros H. pose proof (returned_view_reads_back _ _ _ _ _ H) as Hv. cbn [u_step] in H.
    injection H as <- <- <-. auto.
  Qed.

  (* storing through the slice Alloc returned, before any other call on the buffer, stores the last n bytes
     of the contents: Alloc(n) followed by the caller's own fill is Write *)
  Lemma alloc_then_fill s n s1 v d x s2 r2 :
    u_wf s -> u_step mx s (OAlloc n) = (s1, RView v d) -> lenN x = Z.to_N n ->
    u_step mx s1 (OVWrite v 0 x) = (s2, r2) ->
    u_wf s2 /\ u_contents s2 = u_contents s ++ x /\ r2 = RNum (lenN x).
  Proof.
    intros Hwf. cbn [u_step]. destruct (Z.ltb_spec n 0) as [Hn|Hn]; [discriminate|].
    destruct (u_extend mx s (Z.to_N n)) as [s1' m|s1' p] eqn:He; [|discriminate].
    apply extend_ok in He; auto. destruct He as (G1 & G2 & G3 & G4 & G5 & G6).
    intros [= <- <- <-] Hx.
    destruct (N.ltb_spec (u_len s1' - m) 0) as [Hc|Hc]; [lia|].
    rewrite Nat.eqb_refl. rewrite N.sub_0_r, N.add_0_r.
    assert (Hd : takeN x (u_len s1' - m) = x) by (apply takeN_all; lia).
    rewrite Hd. intros [= <- <-]. destruct (store_end s1' m x G1 G2) as (W & C); [lia|].
    rewrite C, G5. auto.
  Qed.

  Lemma all_zero_app a b : all_zero a -> all_zero b -> all_zero (a ++ b).
  Proof. unfold all_zero. intros. apply Forall_app; auto. Qed.

  Lemma all_zero_dropN l i : all_zero l -> all_zero (dropN l i).
  Proof.
    unfold all_zero. rewrite dropN_skipn. intros H. rewrite <- (firstn_skipn (N.to_nat i) l) in H.
    apply Forall_app in H. apply H.
  Qed.

  Lemma all_zero_takeN l i : all_zero l -> all_zero (takeN l i).
  Proof.
    unfold all_zero. rewrite takeN_firstn. intros H. rewrite <- (firstn_skipn (N.to_nat i) l) in H.
    apply Forall_app in H. apply H.
  Qed.

  Lemma all_zero_zeros_pos p : all_zero (zeros_pos p).
  Proof.
    induction p as [p IH|p IH|]; cbn [zeros_pos].
    - constructor; [reflexivity|]. apply all_zero_app; exact IH.
    - apply all_zero_app; exact IH.
    - constructor; [reflexivity|constructor].
  Qed.

  Lemma all_zero_zeros n : all_zero (zeros n).
  Proof. destruct n; [constructor|apply all_zero_zeros_pos]. Qed.

  Definition app_inv (s : ubuf) : Prop := u_wf s /\ u_off s = 0 /\ tail_zero s.

  (* after the growth step of an append-only buffer, every cell from the returned index on is zero (b.off = 0:
     the contents are never slid down) *)
  Lemma grow_zero s n s' i :
    app_inv s -> u_grow mx s n = GOk s' i -> u_off s' = 0 /\ all_zero (dropN (u_arr s') i).
  Proof.
    intros (Hwf & Hoff & Hz) Hg. pose proof (grow_cases mx s n) as C. rewrite Hg, (pre_grow_off0 s Hoff) in C.
    cbv zeta in C. pose proof (contents_len s Hwf) as HL. destruct Hwf as (W1 & W2 & W3 & W4).
    assert (Hc2 : u_cap s / 2 <= u_cap s) by (apply N.div_le_upper_bound; lia).
    destruct C as [Hr|(Hr & [(_ & _ & -> & ->)|(-> & [(Hs & ->)|(_ & _ & ->)])])]; cbn [u_off u_arr].
    - apply reslice_some in Hr. destruct Hr as (-> & -> & _). auto.
    - split; [reflexivity|]. apply all_zero_dropN, all_zero_zeros.
    - lia.
    - split; [reflexivity|]. rewrite <- HL.
      rewrite dropN_splice_above by (rewrite ?zeros_length; unfold u_cap in *; lia).
      apply all_zero_dropN, all_zero_zeros.
  Qed.

  Lemma extend_zero s n s' i :
    app_inv s -> u_extend mx s n = GOk s' i -> u_off s' = 0 /\ all_zero (dropN (u_arr s') i).
  Proof. intros Hinv. rewrite extend_as_grow by (apply pre_grow_off0, Hinv). apply grow_zero, Hinv. Qed.

  Lemma append_step_inv s o s' r :
    app_inv s -> append_op o = true -> u_step mx s o = (s', r) ->
    app_inv s' /\ (forall n v d, o = OAlloc n -> r = RView v d -> all_zero d).
  Proof.
    intros Hinv Ho Hs. pose proof Hinv as (Hwf & Hoff & Hz).
    assert (Hq : queue_op o) by (destruct o; cbn in *; auto; discriminate).
    destruct (step_spec mx s o s' r Hwf Hq Hs) as (Hwf' & _).
    assert (Hsame : app_inv s /\ forall n v d, o = OAlloc n -> RPanic PTooLarge = RView v d -> all_zero d)
      by (split; [exact Hinv|discriminate]).
    assert (Hpanic : forall n s1 p, u_extend mx s n = GPanic s1 p -> s1 = s /\ p = PTooLarge).
    { intros n s1 p He. apply extend_panic in He; [|exact Hwf]. destruct He as (-> & _ & _ & _ & ->).
      split; [apply pre_grow_off0, Hoff|reflexivity]. }
    assert (Hstore : forall d s1 m, u_extend mx s (lenN d) = GOk s1 m -> tail_zero (set_arr s1 (splice (u_arr s1) m d))).
    { intros d s1 m He. destruct (extend_zero s _ _ _ Hinv He) as (_ & Z2).
      apply extend_ok in He; [|exact Hwf]. destruct He as ((A1 & A2 & _) & G2 & G3 & _).
      unfold tail_zero, set_arr. cbn [u_arr u_len].
      rewrite dropN_splice_above by (unfold u_cap in *; lia). rewrite G3, <- dropN_dropN.
      apply all_zero_dropN. exact Z2. }
    destruct o; cbn [append_op] in Ho; try discriminate; cbn [u_step] in Hs;
      try (injection Hs as <- <-; split; [exact Hinv|discriminate]).
    - (* Alloc *)
      destruct (n <? 0)%Z; [injection Hs as <- <-; split; [exact Hinv|discriminate]|].
      destruct (u_extend mx s (Z.to_N n)) as [s1 m|s1 p] eqn:He.
      + destruct (extend_zero s _ _ _ Hinv He) as (Z1 & Z2).
        apply extend_ok in He; [|exact Hwf]. destruct He as (G1 & G2 & G3 & _).
        injection Hs as <- <-. split.
        * split; [exact Hwf'|]. split; [exact Z1|]. unfold tail_zero. rewrite G3, <- dropN_dropN.
          apply all_zero_dropN. exact Z2.
        * intros n0 v d _ [= <- <-]. unfold slice. apply all_zero_takeN. exact Z2.
      + destruct (Hpanic _ _ _ He) as (-> & ->). injection Hs as <- <-. exact Hsame.
    - (* Grow *)
      destruct (n <? 0)%Z; [injection Hs as <- <-; split; [exact Hinv|discriminate]|].
      rewrite <- extend_as_grow in Hs by (apply pre_grow_off0, Hoff).
      destruct (u_extend mx s (Z.to_N n)) as [s1 m|s1 p] eqn:He.
      + destruct (extend_zero s _ _ _ Hinv He) as (Z1 & Z2).
        injection Hs as <- <-. split; [|discriminate]. split; [exact Hwf'|]. split; [exact Z1|exact Z2].
      + destruct (Hpanic _ _ _ He) as (-> & ->). injection Hs as <- <-. exact Hsame.
    - (* Write *)
      destruct (u_extend mx s (lenN p)) as [s1 m|s1 q] eqn:He.
      + destruct (extend_zero s _ _ _ Hinv He) as (Z1 & _). specialize (Hstore p s1 m He).
        injection Hs as <- <-. split; [|discriminate]. split; [exact Hwf'|]. split; [exact Z1|exact Hstore].
      + destruct (Hpanic _ _ _ He) as (-> & ->). injection Hs as <- <-. exact Hsame.
    - (* WriteByte *)
      destruct (u_extend mx s 1) as [s1 m|s1 q] eqn:He.
      + destruct (extend_zero s _ _ _ Hinv He) as (Z1 & _). specialize (Hstore [c] s1 m He).
        injection Hs as <- <-. split; [|discriminate]. split; [exact Hwf'|]. split; [exact Z1|exact Hstore].
      + destruct (Hpanic _ _ _ He) as (-> & ->). injection Hs as <- <-. exact Hsame.
  Qed.
End Alias.

Section AppendRun.
  Variable mx : N.

  (* every slice Alloc returned in a run of appending calls on an append-only buffer is all zero *)
  Lemma append_run_alloc_zero : forall ops s s' rs,
    app_inv s -> Forall (fun o => append_op o = true) ops -> u_run mx s ops = (s', rs) ->
    app_inv s' /\ forall n v d, In (OAlloc n, RView v d) (combine ops rs) -> all_zero d.
  Proof.
    induction ops as [|o ops IH]; intros s s' rs Hinv HF; cbn [u_run].
    - intros [= <- <-]. split; [exact Hinv|]. intros ? ? ? [].
    - inversion HF as [|? ? Ho Hops]; subst.
      destruct (u_step mx s o) as [s1 r] eqn:Hs.
      destruct (append_step_inv mx s o s1 r Hinv Ho Hs) as (I1 & Z1).
      destruct (is_stop r) eqn:Hstop.
      + intros [= <- <-]. split; [exact I1|]. intros n v d [E|Hin]; [injection E as -> ->; discriminate Hstop|destruct ops; destruct Hin].
      + destruct (u_run mx s1 ops) as [s2 rs'] eqn:Hr. intros [= <- <-].
        destruct (IH s1 s2 rs' I1 Hops Hr) as (I2 & Z2). split; [exact I2|].
        intros n v d [E|Hin].
        * injection E as -> ->. eapply Z1; reflexivity.
        * eapply Z2; exact Hin.
  Qed.

  Lemma app_inv_zero : app_inv u_zero.
  Proof.
    split; [|split; [reflexivity|unfold tail_zero, all_zero; cbn; constructor]].
    unfold u_wf, u_zero, u_cap, maxInt, lenN. cbn [u_off u_len u_arr u_nil length N.of_nat].
    repeat split; auto; lia.
  Qed.
End AppendRun.

Section Final.
  Variable mx : N.

  Lemma views_unchanged_by_reads ops s s' rs :
    Forall (fun o => write_op o = false) ops -> u_run mx s ops = (s', rs) ->
    forall v, view_read s' v = view_read s v.
  Proof.
    intros HF Hr. destruct (run_reads_frame mx ops s s' rs HF Hr) as (E1 & E2).
    intros [[a lo] n]. unfold view_read, u_array. now rewrite E1, E2.
  Qed.

  Lemma view_below_len_survives_reslice s o s' r a lo n :
    u_wf s ->
    (match o with OAlloc k => (0 <= k)%Z | OWrite _ | OWriteByte _ => True | _ => False end) ->
    op_need o <= u_cap s - u_len s ->
    u_step mx s o = (s', r) ->
    (a < u_aid s)%nat \/ (a = u_aid s /\ lo + n <= u_len s) ->
    view_read s' (a, lo, n) = view_read s (a, lo, n).
  Proof.
    intros Hwf Ho Hn Hs Hv.
    destruct (fast_path_keeps_prefix mx s o s' r Hwf Ho Hn Hs) as (E1 & _ & _ & E4).
    unfold view_read, u_array. rewrite E1. destruct Hv as [Ha|(-> & Hlo)].
    - unfold u_aid in Ha. rewrite !app_nth1 by assumption. reflexivity.
    - unfold u_aid. rewrite !app_nth2 by lia. rewrite Nat.sub_diag. cbn [nth]. apply E4. exact Hlo.
  Qed.

  Lemma readfrom_total s sc tl s' r :
    u_wf s -> u_step mx s (OReadFrom sc tl) = (s', r) ->
    u_wf s'
    /\ (tl = TEof -> r <> RDiverge)
    /\ (forall n d, r <> RNErr n UEOF d)
    /\ (Forall rd_small sc -> Forall rd_nonneg sc ->
        (r = RPanic PTooLarge /\ exists k, u_contents s' = u_contents s ++ concat (map rd_data (firstn k sc)))
        \/ (u_contents s' = u_contents s ++ fst (rf_abs sc tl [])
            /\ (r = RDiverge \/ exists e, e <> UEOF /\ r = RNErr (lenN (fst (rf_abs sc tl []))) e []))).
  Proof.
    intros Hwf Hs. destruct (step_spec mx s (OReadFrom sc tl) s' r Hwf I Hs) as (W & Q). cbn [q_spec] in Q.
    split; [exact W|]. split; [|split].
    - intros ->. destruct Q as [(-> & _)|[(-> & _)|(-> & _)]]; try discriminate. apply rf_abs_teof_returns.
    - intros n d. destruct Q as [(-> & _)|[(-> & _)|(-> & _)]]; try discriminate. apply rf_abs_never_eof.
    - intros Hsm Hnn. destruct Q as [(-> & Hk)|[(-> & Hb)|(-> & Hc)]].
      + left. auto.
      + contradiction.
      + right. split; [exact Hc|]. destruct (rf_abs_lawful tl sc [] Hnn) as [E|(e & E1 & E2)]; [left; exact E|].
        right. exists e. auto.
  Qed.
End Final.
