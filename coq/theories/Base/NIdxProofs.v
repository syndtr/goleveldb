(* Base/NIdxProofs.v — facts about the N-indexed byte-array operations of NIdx.v *)
From GL Require Import Base.BytesProofs Base.NIdx.
From GL Require Base.VarintProofs.
From Coq Require Import Lia.

Lemma lenN_nil {A} : lenN (@nil A) = 0.
Proof. reflexivity. Qed.

Lemma lenN_cons {A} (a : A) l : lenN (a :: l) = lenN l + 1.
Proof. unfold lenN. cbn [length]. lia. Qed.

Lemma lenN_app {A} (a b : list A) : lenN (a ++ b) = lenN a + lenN b.
Proof. unfold lenN. rewrite app_length. lia. Qed.

Lemma lenN_0 {A} (l : list A) : lenN l = 0 -> l = [].
Proof. destruct l; [reflexivity|]. rewrite lenN_cons. lia. Qed.

Lemma get_at_nth l : forall i, get_at l i = nth (N.to_nat i) l 0.
Proof.
  induction l as [|b l IH]; intros i; cbn [get_at].
  - destruct (N.to_nat i); reflexivity.
  - destruct (N.eqb_spec i 0) as [->|Hi]; [reflexivity|].
    rewrite IH. replace (N.to_nat i) with (S (N.to_nat (i - 1))) by lia. reflexivity.
Qed.

Lemma dropN_skipn l : forall i, dropN l i = skipn (N.to_nat i) l.
Proof.
  induction l as [|b l IH]; intros i; cbn [dropN].
  - destruct (N.to_nat i); reflexivity.
  - destruct (N.eqb_spec i 0) as [->|Hi]; [reflexivity|].
    rewrite IH. replace (N.to_nat i) with (S (N.to_nat (i - 1))) by lia. reflexivity.
Qed.

Lemma takeN_firstn l : forall i, takeN l i = firstn (N.to_nat i) l.
Proof.
  induction l as [|b l IH]; intros i; cbn [takeN].
  - destruct (N.to_nat i); reflexivity.
  - destruct (N.eqb_spec i 0) as [->|Hi]; [reflexivity|].
    rewrite IH. replace (N.to_nat i) with (S (N.to_nat (i - 1))) by lia. reflexivity.
Qed.

Lemma set_at_length l : forall i v, length (set_at l i v) = length l.
Proof.
  induction l as [|b l IH]; intros i v; cbn [set_at]; [reflexivity|].
  destruct (i =? 0); cbn [length]; [reflexivity|]. now rewrite IH.
Qed.

Lemma lenN_set_at l i v : lenN (set_at l i v) = lenN l.
Proof. unfold lenN. now rewrite set_at_length. Qed.

Lemma get_set_at_same l : forall i v, i < lenN l -> get_at (set_at l i v) i = v.
Proof.
  induction l as [|b l IH]; intros i v Hi.
  - rewrite lenN_nil in Hi. lia.
  - rewrite lenN_cons in Hi. cbn [set_at get_at].
    destruct (N.eqb_spec i 0) as [->|Hn]; cbn [get_at].
    + reflexivity.
    + destruct (N.eqb_spec i 0); [lia|]. apply IH. lia.
Qed.

Lemma get_set_at_other l : forall i j v, i <> j -> get_at (set_at l i v) j = get_at l j.
Proof.
  induction l as [|b l IH]; intros i j v Hij; cbn [set_at]; [reflexivity|].
  destruct (N.eqb_spec i 0) as [->|Hn]; cbn [get_at].
  - destruct (N.eqb_spec j 0); [lia|reflexivity].
  - destruct (N.eqb_spec j 0); [reflexivity|]. apply IH. lia.
Qed.

Lemma or_at_set_at l : forall i m, or_at l i m = set_at l i (N.lor (get_at l i) m).
Proof.
  induction l as [|b l IH]; intros i m; cbn [or_at set_at get_at]; [reflexivity|].
  destruct (i =? 0); [reflexivity|]. now rewrite IH.
Qed.

Lemma or_at_length l : forall i m, length (or_at l i m) = length l.
Proof. intros i m. rewrite or_at_set_at. apply set_at_length. Qed.

Lemma lenN_or_at l i m : lenN (or_at l i m) = lenN l.
Proof. rewrite or_at_set_at. apply lenN_set_at. Qed.

Lemma get_or_at_same l : forall i m, i < lenN l -> get_at (or_at l i m) i = N.lor (get_at l i) m.
Proof. intros i m. rewrite or_at_set_at. apply get_set_at_same. Qed.

Lemma get_or_at_other l : forall i j m, i <> j -> get_at (or_at l i m) j = get_at l j.
Proof. intros i j m. rewrite or_at_set_at. apply get_set_at_other. Qed.

Lemma zeros_pos_length p : lenN (zeros_pos p) = Npos p.
Proof.
  induction p as [p IH|p IH|]; cbn [zeros_pos].
  - rewrite lenN_cons, lenN_app, IH. lia.
  - rewrite lenN_app, IH. lia.
  - reflexivity.
Qed.

Lemma zeros_length n : lenN (zeros n) = n.
Proof. destruct n; [reflexivity|apply zeros_pos_length]. Qed.

Lemma dropN_app_exact (a b : bytes) : dropN (a ++ b) (lenN a) = b.
Proof. rewrite dropN_skipn. exact (VarintProofs.dropN_app a b). Qed.

Lemma dropN_app_ge (a b : bytes) i : lenN a <= i -> dropN (a ++ b) i = dropN b (i - lenN a).
Proof. intros H. rewrite !dropN_skipn. exact (VarintProofs.dropN_app_ge i a b H). Qed.

Lemma takeN_app_exact (a b : bytes) : takeN (a ++ b) (lenN a) = a.
Proof. rewrite takeN_firstn. exact (VarintProofs.takeN_app a b). Qed.

Lemma takeN_app_le (a b : bytes) i : i <= lenN a -> takeN (a ++ b) i = takeN a i.
Proof. intros H. rewrite !takeN_firstn. exact (VarintProofs.takeN_app_le i a b H). Qed.

Lemma slice_app3 (a b c : bytes) : slice (a ++ b ++ c) (lenN a) (lenN a + lenN b) = b.
Proof.
  unfold slice. rewrite dropN_app_exact. replace (lenN a + lenN b - lenN a) with (lenN b) by lia.
  apply takeN_app_exact.
Qed.

Lemma get_at_app_ge (a b : bytes) i : lenN a <= i -> get_at (a ++ b) i = get_at b (i - lenN a).
Proof.
  intros H. rewrite !get_at_nth. unfold lenN in *. rewrite app_nth2 by lia. f_equal. lia.
Qed.

Lemma get_at_app_lt (a b : bytes) i : i < lenN a -> get_at (a ++ b) i = get_at a i.
Proof.
  intros H. rewrite !get_at_nth. unfold lenN in *. rewrite app_nth1 by lia. reflexivity.
Qed.

Lemma u32_at_le32 (a c : bytes) x : x < 2 ^ 32 -> u32_at (a ++ le32 x ++ c) (lenN a) = x.
Proof.
  intros Hx. unfold u32_at. rewrite dropN_app_exact.
  replace 4 with (lenN (le32 x)) by (unfold lenN, le32; now rewrite le_encode_length).
  rewrite takeN_app_exact. unfold le32. rewrite le_decode_encode.
  change (256 ^ N.of_nat 4) with (2 ^ 32). now apply N.mod_small.
Qed.

Lemma w32_small x : x < 2 ^ 32 -> w32 x = x.
Proof. intros. unfold w32. now apply N.mod_small. Qed.

Lemma w32_lt x : w32 x < 2 ^ 32.
Proof. unfold w32. apply N.mod_lt. discriminate. Qed.
