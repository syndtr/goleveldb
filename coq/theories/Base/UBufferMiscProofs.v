(* Base/UBufferMiscProofs.v — proofs about the models of BytesPrefix, util.BufferPool and BasicReleaser
   (Base/UBuffer.v sections 2-4). *)
From GL Require Import Base.UBuffer.
From Coq Require Import Lia.

(* the same function by recursion from the left: the limit of the tail if it has one, else bump this byte *)
Fixpoint plimit (p : bytes) : option bytes :=
  match p with
  | [] => None
  | c :: r => match plimit r with
              | Some l => Some (c :: l)
              | None => if c <? 255 then Some [c + 1] else None
              end
  end.

Lemma bp_loop_cons c r : forall j, (j <= length r)%nat ->
  bp_loop (c :: r) (S j) =
  match bp_loop r j with Some l => Some (c :: l) | None => if c <? 255 then Some [c + 1] else None end.
Proof.
  induction j as [|i IH]; intros Hj.
  - cbn [bp_loop nth firstn app]. destruct (c <? 255); reflexivity.
  - change (bp_loop (c :: r) (S (S i))) with
      (let x := nth (S i) (c :: r) 0 in
       if x <? 255 then Some (firstn (S i) (c :: r) ++ [x + 1]) else bp_loop (c :: r) (S i)).
    cbn [nth firstn app bp_loop]. destruct (nth i r 0 <? 255); [reflexivity|]. apply IH. lia.
Qed.

Lemma bp_loop_plimit : forall p, bp_loop p (length p) = plimit p.
Proof.
  induction p as [|c r IH]; [reflexivity|].
  cbn [length plimit]. rewrite bp_loop_cons by lia. rewrite IH. reflexivity.
Qed.

Lemma wf_cons_inv b l : wf_bytes (b :: l) -> b < 256 /\ wf_bytes l.
Proof. intros H. inversion H; subst. split; assumption. Qed.

Lemma bcmp_nil_not_lt k : bcmp k [] <> Lt.
Proof. destruct k; cbn; discriminate. Qed.

Lemma in_range_plimit : forall p k, wf_bytes p -> wf_bytes k ->
  in_range (p, plimit p) k = is_prefix_of p k.
Proof.
  induction p as [|c r IH]; intros k Hp Hk.
  - unfold in_range. cbn [fst snd plimit is_prefix_of]. destruct k; reflexivity.
  - apply wf_cons_inv in Hp. destruct Hp as (Hc & Hr).
    destruct k as [|y k']; [reflexivity|].
    apply wf_cons_inv in Hk. destruct Hk as (Hy & Hk').
    specialize (IH k' Hr Hk'). unfold in_range in *. cbn [fst snd plimit is_prefix_of bcmp] in *.
    destruct (N.compare_spec c y) as [->|Hlt|Hgt].
    + rewrite N.eqb_refl. cbn [andb].
      destruct (plimit r) as [l|].
      * cbn [bcmp]. rewrite N.compare_refl. exact IH.
      * destruct (N.ltb_spec y 255) as [H5|H5].
        -- cbn [bcmp]. replace (y ?= y + 1) with Lt by (symmetry; apply N.compare_lt_iff; lia). exact IH.
        -- exact IH.
    + replace (c =? y) with false by (symmetry; apply N.eqb_neq; lia). cbn [andb].
      destruct (plimit r) as [l|].
      * cbn [bcmp]. replace (y ?= c) with Gt by (symmetry; apply N.compare_gt_iff; lia). reflexivity.
      * destruct (N.ltb_spec c 255) as [H5|H5]; [|lia].
        cbn [bcmp]. destruct (N.compare_spec y (c + 1)) as [E|L|G]; try lia; try reflexivity.
        pose proof (bcmp_nil_not_lt k'). destruct (bcmp k' []); congruence.
    + replace (c =? y) with false by (symmetry; apply N.eqb_neq; lia). reflexivity.
Qed.

Lemma plimit_none_iff : forall p, wf_bytes p -> (plimit p = None <-> Forall (fun c => c = 255) p).
Proof.
  induction p as [|c r IH]; intros Hp.
  - split; [constructor|reflexivity].
  - apply wf_cons_inv in Hp. destruct Hp as (Hc & Hr). specialize (IH Hr). cbn [plimit].
    destruct (plimit r) as [l|].
    + split; [discriminate|]. intros H. inversion H; subst. destruct IH as (_ & I). discriminate I. assumption.
    + destruct (N.ltb_spec c 255).
      * split; [discriminate|]. intros H'. inversion H'; subst. lia.
      * split; [|reflexivity]. intros _. constructor; [lia|]. apply IH. reflexivity.
Qed.

Lemma pool_num_from_ge bl n : forall i, (i <= pool_num_from bl n i)%nat.
Proof.
  induction bl as [|x bl IH]; intros i; cbn [pool_num_from]; [lia|].
  destruct (n <=? x); [lia|]. specialize (IH (S i)). lia.
Qed.

Lemma pool_num_from_le bl n : forall i, (pool_num_from bl n i <= i + length bl)%nat.
Proof.
  induction bl as [|x bl IH]; intros i; cbn [pool_num_from length]; [lia|].
  destruct (n <=? x); [lia|]. specialize (IH (S i)). lia.
Qed.

Lemma pool_num_from_shift bl n : forall i, pool_num_from bl n i = (pool_num_from bl n 0 + i)%nat.
Proof.
  induction bl as [|x bl IH]; intros i; cbn [pool_num_from]; [lia|].
  destruct (n <=? x); [lia|]. rewrite (IH (S i)), (IH 1%nat). lia.
Qed.

Lemma pool_num_from_mono bl : forall n n' i, n <= n' -> (pool_num_from bl n i <= pool_num_from bl n' i)%nat.
Proof.
  induction bl as [|x bl IH]; intros n n' i H; cbn [pool_num_from]; [lia|].
  destruct (N.leb_spec n x); destruct (N.leb_spec n' x); try lia.
  - pose proof (pool_num_from_ge bl n' (S i)). lia.
  - apply IH; assumption.
Qed.

(* the class of a size: within the class's bound, above every smaller class's bound *)
Lemma pool_num_bound bl n :
  let c := pool_num bl n in
  (c <= length bl)%nat /\ ((c < length bl)%nat -> n <= nth c bl 0) /\ forall i, (i < c)%nat -> nth i bl 0 < n.
Proof.
  unfold pool_num. induction bl as [|x bl IH]; cbn [pool_num_from length].
  - repeat split; intros; lia.
  - destruct (N.leb_spec n x) as [Hle|Hgt].
    + cbn [nth]. repeat split; intros; lia.
    + rewrite pool_num_from_shift. destruct IH as (I1 & I2 & I3).
      replace (pool_num_from bl n 0 + 1)%nat with (S (pool_num_from bl n 0)) by lia.
      repeat split; try lia.
      * intros Hc. cbn [nth]. apply I2. lia.
      * intros i Hi. destruct i as [|i]; cbn [nth]; [exact Hgt|]. apply I3. lia.
Qed.

Lemma bp_get_len_cap p n pick fresh :
  let g := snd (bp_get p n pick fresh) in pg_len g = n /\ n <= pg_cap g.
Proof.
  unfold bp_get.
  set (c := pool_num (bp_base p) n).
  assert (Hmade : n <= (if Nat.eqb c (length (bp_base p)) then n else nth c (bp_base p) 0)).
  { destruct (Nat.eqb_spec c (length (bp_base p))); [lia|].
    pose proof (pool_num_bound (bp_base p) n) as (B1 & B2 & _). fold c in B1, B2. apply B2. lia. }
  destruct pick as [i|]; [|cbn [snd pg_len pg_cap]; auto].
  destruct (nth_error (nth c (bp_cls p) []) i) as [[id cp]|]; [|cbn [snd pg_len pg_cap]; auto].
  destruct (cp =? 0); [cbn [snd pg_len pg_cap]; auto|].
  destruct (N.leb_spec n cp); cbn [snd pg_len pg_cap]; auto.
Qed.

Lemma nth_set_nth_cls : forall (l : list (list pbuf)) i j x,
  nth j (set_nth_cls l i x) [] = if Nat.eqb i j then (if Nat.ltb i (length l) then x else []) else nth j l [].
Proof.
  induction l as [|y l IH]; intros i j x; cbn [set_nth_cls].
  - destruct (Nat.eqb i j); destruct j; reflexivity.
  - destruct i as [|i]; destruct j as [|j]; cbn [nth Nat.eqb length]; try reflexivity.
    rewrite IH. destruct (Nat.eqb i j); [|reflexivity].
    change (Nat.ltb (S i) (S (length l))) with (Nat.ltb i (length l)). reflexivity.
Qed.

(* every pooled slice sits in the class of its capacity *)
Definition pool_ok (p : bpool) : Prop :=
  forall c b, In b (nth c (bp_cls p) []) -> pool_num (bp_base p) (snd b) = c.

Lemma pool_ok_new b : pool_ok (bp_new b).
Proof. intros c x. cbn. destruct c as [|[|[|[|[|[|[|c]]]]]]]; cbn; intros []. Qed.

Lemma In_remove_nth {A} (l : list A) : forall i x, In x (remove_nth l i) -> In x l.
Proof.
  induction l as [|y l IH]; intros i x; cbn [remove_nth]; [intros []|].
  destruct i; cbn [In]; [auto|]. intros [E|H]; [auto|right; eapply IH; eauto].
Qed.

(* Put files a slice under the class of its capacity *)
Lemma pool_ok_put p b : pool_ok p -> pool_ok (bp_put p b).
Proof.
  intros H c x. unfold bp_put. cbn [bp_cls bp_base]. rewrite nth_set_nth_cls.
  destruct (Nat.eqb_spec (pool_num (bp_base p) (snd b)) c) as [E|E]; [|apply H].
  destruct (Nat.ltb _ _); [|intros []]. intros [<-|Hin]; [exact E|]. apply H. rewrite <- E. exact Hin.
Qed.

Lemma pool_ok_get p n pick fresh : pool_ok p -> pool_ok (fst (bp_get p n pick fresh)).
Proof.
  intros H. unfold bp_get. destruct pick as [i|]; [|exact H].
  destruct (nth_error _ i) as [[id cp]|] eqn:Hn; [|exact H].
  assert (Hok : pool_ok (BP (bp_base p) (set_nth_cls (bp_cls p) (pool_num (bp_base p) n)
                          (remove_nth (nth (pool_num (bp_base p) n) (bp_cls p) []) i)))).
  { intros c x. cbn [bp_cls bp_base]. rewrite nth_set_nth_cls.
    destruct (Nat.eqb_spec (pool_num (bp_base p) n) c) as [E|E]; [|apply H].
    destruct (Nat.ltb _ _); [|intros []]. intros Hin. apply In_remove_nth in Hin. rewrite <- E. apply H. exact Hin. }
  destruct (cp =? 0); [exact Hok|]. destruct (n <=? cp); exact Hok.
Qed.

(* a reused slice comes from the class of the request: its capacity is in the same class as n *)
Lemma bp_get_reused_class p n i fresh :
  pool_ok p -> pg_reused (snd (bp_get p n (Some i) fresh)) = true ->
  pool_num (bp_base p) (pg_cap (snd (bp_get p n (Some i) fresh))) = pool_num (bp_base p) n.
Proof.
  intros H. unfold bp_get.
  destruct (nth_error _ i) as [[id cp]|] eqn:Hn; [|cbn; discriminate].
  destruct (cp =? 0); [cbn; discriminate|]. destruct (n <=? cp); [|cbn; discriminate].
  cbn [snd pg_reused pg_cap]. intros _. apply nth_error_In in Hn. apply (H _ (id, cp)). exact Hn.
Qed.

Lemma filter_remove_nth {A} (f : A -> bool) (l : list A) : forall i b,
  nth_error l i = Some b ->
  length (filter f l) = (length (filter f (remove_nth l i)) + (if f b then 1 else 0))%nat.
Proof.
  induction l as [|y l IH]; intros i b; destruct i; cbn [nth_error remove_nth filter]; try discriminate.
  - intros [= ->]. destruct (f b); cbn [length]; lia.
  - intros Hn. specialize (IH i b Hn). destruct (f y); cbn [length]; lia.
Qed.

Lemma count_set_nth_cls (f : pbuf -> bool) : forall (cls : list (list pbuf)) c x,
  (c < length cls)%nat ->
  (length (filter f (concat (set_nth_cls cls c x))) + length (filter f (nth c cls [])) =
   length (filter f (concat cls)) + length (filter f x))%nat.
Proof.
  induction cls as [|y cls IH]; intros c x Hc; cbn [length] in Hc; [lia|].
  destruct c as [|c]; cbn [set_nth_cls concat nth].
  - rewrite !filter_app, !app_length. lia.
  - rewrite !filter_app, !app_length. specialize (IH c x). lia.
Qed.

Lemma nth_error_nth_nil {A} (l : list (list A)) c i b :
  nth_error (nth c l []) i = Some b -> (c < length l)%nat.
Proof.
  intros H. destruct (Nat.lt_ge_cases c (length l)); [assumption|].
  rewrite nth_overflow in H by assumption. destruct i; discriminate.
Qed.

(* Get takes the slice it returns out of the pool *)
Lemma bp_get_takes_out p n i fresh :
  let r := bp_get p n (Some i) fresh in
  pg_reused (snd r) = true -> S (bp_count (fst r) (pg_id (snd r))) = bp_count p (pg_id (snd r)).
Proof.
  unfold bp_get. destruct (nth_error _ i) as [[id cp]|] eqn:Hn; [|cbn; discriminate].
  destruct (cp =? 0); [cbn; discriminate|]. destruct (n <=? cp); [|cbn; discriminate].
  cbn [fst snd pg_reused pg_id]. intros _. unfold bp_count. cbn [bp_cls].
  pose proof (nth_error_nth_nil _ _ _ _ Hn) as Hc.
  pose proof (count_set_nth_cls (fun b => Nat.eqb (fst b) id) (bp_cls p) _
                (remove_nth (nth (pool_num (bp_base p) n) (bp_cls p) []) i) Hc) as E.
  pose proof (filter_remove_nth (fun b => Nat.eqb (fst b) id) _ _ _ Hn) as F.
  cbn [fst] in F. rewrite Nat.eqb_refl in F. unfold pbuf in *. lia.
Qed.

(* a slice that is in the pool at most once cannot be handed out twice without a Put in between *)
Lemma bp_get_no_second_owner p n i fresh n' i' fresh' :
  let r := bp_get p n (Some i) fresh in
  let r' := bp_get (fst r) n' (Some i') fresh' in
  (bp_count p (pg_id (snd r)) <= 1)%nat ->
  pg_reused (snd r) = true -> pg_reused (snd r') = true -> pg_id (snd r') <> pg_id (snd r).
Proof.
  intros r r' Hc Hr Hr' E.
  pose proof (bp_get_takes_out p n i fresh Hr) as T. fold r in T.
  pose proof (bp_get_takes_out (fst r) n' i' fresh' Hr') as T'. fold r' in T'.
  rewrite E in T'. lia.
Qed.

(* the attached releaser is called by the first Release only, and Release latches *)
Lemma rl_release_latches r :
  let '(r1, res1) := rl_step r RLRelease in
  rl_released r1 = true /\ rl_step r1 RLRelease = (r1, RLUnit false).
Proof. unfold rl_step. destruct (rl_released r) eqn:E; cbn; rewrite ?E; auto. Qed.

Lemma rl_set_after_release_panics r nn :
  rl_released r = true -> rl_step r (RLSet nn) = (r, RLPanicReleased).
Proof. intros H. unfold rl_step. now rewrite H. Qed.

Lemma bytes_prefix_correct p k : wf_bytes p -> wf_bytes k ->
  fst (bytes_prefix p) = p /\ in_range (bytes_prefix p) k = is_prefix_of p k.
Proof.
  intros Hp Hk. split; [reflexivity|]. unfold bytes_prefix. rewrite bp_loop_plimit. apply in_range_plimit; assumption.
Qed.

Lemma bytes_prefix_open_limit p : wf_bytes p ->
  (snd (bytes_prefix p) = None <-> Forall (fun c => c = 255) p).
Proof. intros Hp. unfold bytes_prefix. cbn [snd]. rewrite bp_loop_plimit. apply plimit_none_iff. exact Hp. Qed.

Lemma pool_num_mono bl n n' : n <= n' -> (pool_num bl n <= pool_num bl n')%nat.
Proof. apply pool_num_from_mono. Qed.
