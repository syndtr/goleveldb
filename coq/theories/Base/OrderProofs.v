(* Base/OrderProofs.v — the order laws of a comparer that meets the documented contract (comparer_ok).  Only
   le_antisym and lt_total, which conclude equality of contents, need more than the preorder laws of
   Base/OrderPre.v. *)
From GL Require Import Base.OrderPre.

Section Laws.
  Variable c : comparer.
  Hypothesis ok : comparer_ok c.

  Lemma cmp_refl a : cmp c a a = Eq.
  Proof. exact (pcmp_refl c (comparer_ok_pre c ok) a). Qed.

  Lemma cmp_gt_lt a b : cmp c a b = Gt <-> cmp c b a = Lt.
  Proof. exact (pcmp_gt_lt c (comparer_ok_pre c ok) a b). Qed.

  Lemma cmp_lt_gt a b : cmp c a b = Lt <-> cmp c b a = Gt.
  Proof. exact (pcmp_lt_gt c (comparer_ok_pre c ok) a b). Qed.

  Lemma lt_irrefl a : ~ lt c a a.
  Proof. exact (plt_irrefl c (comparer_ok_pre c ok) a). Qed.

  Lemma lt_trans a b d : lt c a b -> lt c b d -> lt c a d.
  Proof. exact (plt_trans c (comparer_ok_pre c ok) a b d). Qed.

  Lemma le_lt_trans a b d : le c a b -> lt c b d -> lt c a d.
  Proof. exact (ple_lt_trans c (comparer_ok_pre c ok) a b d). Qed.

  Lemma lt_le_trans a b d : lt c a b -> le c b d -> lt c a d.
  Proof. exact (plt_le_trans c (comparer_ok_pre c ok) a b d). Qed.

  Lemma le_trans a b d : le c a b -> le c b d -> le c a d.
  Proof. exact (ple_trans c (comparer_ok_pre c ok) a b d). Qed.

  Lemma lt_le a b : lt c a b -> le c a b.
  Proof. unfold lt, le. intros ->. discriminate. Qed.

  Lemma le_refl a : le c a a.
  Proof. exact (ple_refl c (comparer_ok_pre c ok) a). Qed.

  Lemma not_lt_le a b : ~ lt c a b <-> le c b a.
  Proof. exact (pnot_lt_le c (comparer_ok_pre c ok) a b). Qed.

  Lemma le_antisym a b : le c a b -> le c b a -> a = b.
  Proof. intros H1 H2. apply (cmp_eq c ok). exact (ple_antisym c (comparer_ok_pre c ok) a b H1 H2). Qed.

  Lemma lt_total a b : lt c a b \/ a = b \/ lt c b a.
  Proof.
    destruct (plt_total c (comparer_ok_pre c ok) a b) as [H|[H|H]]; auto.
    right; left. apply (cmp_eq c ok). exact H.
  Qed.

  Lemma ltb_lt a b : ltb c a b = true <-> lt c a b.
  Proof. unfold ltb, lt. destruct (cmp c a b); split; congruence. Qed.

  Lemma leb_le a b : leb c a b = true <-> le c a b.
  Proof. unfold leb, le. destruct (cmp c a b); split; congruence. Qed.
End Laws.
