From GL Require Import Base.Bytes.
From Coq Require Import ZArith Lia ZifyN ZifyNat ZifyBool.
Ltac Zify.zify_post_hook ::= Z.div_mod_to_equations.

Lemma beq_eq a b : beq a b = true <-> a = b.
Proof.
  revert b; induction a as [|x a IH]; intros [|y b]; cbn [beq]; split; try congruence; try reflexivity.
  - intros H. apply andb_prop in H as [H1 H2]. apply N.eqb_eq in H1. apply IH in H2. congruence.
  - intros H. injection H as -> ->. rewrite N.eqb_refl. cbn. apply IH. reflexivity.
Qed.

Lemma beq_refl a : beq a a = true.
Proof. now apply beq_eq. Qed.

Lemma beq_neq a b : a <> b -> beq a b = false.
Proof. intro H. destruct (beq a b) eqn:E; [|reflexivity]. apply beq_eq in E. contradiction. Qed.

Lemma beq_sym a b : beq a b = beq b a.
Proof.
  destruct (beq a b) eqn:E.
  - apply beq_eq in E. subst. symmetry. apply beq_refl.
  - symmetry. apply beq_neq. intros ->. rewrite beq_refl in E. discriminate.
Qed.

Lemma le_encode_length n x : length (le_encode n x) = n.
Proof. revert x; induction n as [|n IH]; intros x; cbn [le_encode length]; [reflexivity|]. now rewrite IH. Qed.

Lemma le_decode_encode n x : le_decode (le_encode n x) = x mod 256 ^ N.of_nat n.
Proof.
  revert x; induction n as [|n IH]; intros x.
  - cbn [le_encode le_decode]. change (N.of_nat 0) with 0. rewrite N.pow_0_r, N.mod_1_r. reflexivity.
  - cbn [le_encode le_decode]. rewrite IH.
    replace (N.of_nat (S n)) with (N.succ (N.of_nat n)) by lia.
    rewrite N.pow_succ_r'.
    rewrite (N.mod_mul_r x 256 (256 ^ N.of_nat n)); [reflexivity | lia | apply N.pow_nonzero; lia].
Qed.

Lemma le64_roundtrip x : x < 2 ^ 64 -> le_decode (le64 x) = x.
Proof.
  intros H. unfold le64. rewrite le_decode_encode.
  change (256 ^ N.of_nat 8) with (2 ^ 64). apply N.mod_small. exact H.
Qed.

Lemma le_encode_wf n x : wf_bytes (le_encode n x).
Proof.
  revert x; induction n as [|n IH]; intros x; cbn [le_encode]; constructor.
  - unfold wf_byte. apply N.mod_lt. lia.
  - apply IH.
Qed.

Lemma le_decode_bound l : wf_bytes l -> le_decode l < 256 ^ N.of_nat (length l).
Proof.
  induction l as [|b l IH]; intros H; cbn [le_decode length].
  - change (N.of_nat 0) with 0. rewrite N.pow_0_r. lia.
  - inversion H as [|? ? Hb Hl]; subst. specialize (IH Hl). unfold wf_byte in Hb.
    replace (N.of_nat (S (length l))) with (N.succ (N.of_nat (length l))) by lia.
    rewrite N.pow_succ_r'. nia.
Qed.

Lemma le_encode_decode l : wf_bytes l -> le_encode (length l) (le_decode l) = l.
Proof.
  induction l as [|b l IH]; intros H; cbn [le_decode length le_encode]; [reflexivity|].
  inversion H as [|? ? Hb Hl]; subst. unfold wf_byte in Hb.
  f_equal.
  - rewrite N.mul_comm, N.mod_add by lia. apply N.mod_small; exact Hb.
  - rewrite N.mul_comm, N.div_add by lia. rewrite N.div_small by exact Hb. cbn. apply IH; exact Hl.
Qed.

Lemma lastn_app {A} n (a b : list A) : length b = n -> lastn n (a ++ b) = b.
Proof.
  intros H. unfold lastn. rewrite app_length, H.
  replace (length a + n - n)%nat with (length a) by lia.
  rewrite skipn_app, skipn_all, Nat.sub_diag. reflexivity.
Qed.

Lemma droplast_app {A} n (a b : list A) : length b = n -> droplast n (a ++ b) = a.
Proof.
  intros H. unfold droplast. rewrite app_length, H.
  replace (length a + n - n)%nat with (length a) by lia.
  rewrite firstn_app, firstn_all, Nat.sub_diag. cbn. apply app_nil_r.
Qed.

Lemma droplast_lastn {A} n (l : list A) : droplast n l ++ lastn n l = l.
Proof. unfold droplast, lastn. apply firstn_skipn. Qed.

Lemma lastn_length {A} n (l : list A) : (n <= length l)%nat -> length (lastn n l) = n.
Proof. intros H. unfold lastn. rewrite skipn_length. lia. Qed.
