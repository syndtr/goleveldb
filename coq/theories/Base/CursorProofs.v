(* Base/CursorProofs.v — laws of the reference cursor (Base/Cursor.v). *)
From GL Require Import Base.Cursor.
From Coq Require Import Arith Lia.

Section Laws.
  Context {V : Type}.
  Variable c : comparer.
  Hypothesis c_ok : comparer_ok c.

  Lemma sorted_from_nth (l : list (bytes * V)) : forall k0 j k v,
    sorted_from c k0 l -> nth_error l j = Some (k, v) -> cmp c k0 k = Lt.
  Proof.
    induction l as [|[k1 v1] r IH]; intros k0 j k v Hs Hj.
    - destruct j; discriminate.
    - destruct Hs as [H1 H2]. destruct j as [|j]; cbn [nth_error] in Hj.
      + injection Hj as <- _. exact H1.
      + eapply (cmp_trans c c_ok); [exact H1|]. eapply IH; eauto.
  Qed.

  Lemma sorted_nth (l : list (bytes * V)) : forall i j ki vi kj vj,
    sorted c l -> (i < j)%nat ->
    nth_error l i = Some (ki, vi) -> nth_error l j = Some (kj, vj) -> cmp c ki kj = Lt.
  Proof.
    induction l as [|[k1 v1] r IH]; intros i j ki vi kj vj Hs Hij Hi Hj.
    - destruct i; discriminate.
    - destruct j as [|j]; [lia|]. cbn [nth_error] in Hj.
      destruct i as [|i]; cbn [nth_error] in Hi.
      + injection Hi as <- _. cbn [sorted] in Hs. eapply sorted_from_nth; eauto.
      + apply (IH i j ki vi kj vj); try assumption; try lia.
        cbn [sorted] in Hs. destruct r as [|[k2 v2] r']; [exact I|]. cbn [sorted]. apply Hs.
  Qed.

  Lemma sorted_tail (kv : bytes * V) l : sorted c (kv :: l) -> sorted c l.
  Proof.
    destruct kv as [k v]. cbn [sorted]. destruct l as [|[k2 v2] r]; [trivial|]. cbn [sorted sorted_from]. tauto.
  Qed.

  Lemma first_ge_some_intro (l : list (bytes * V)) : forall k s j kj vj,
    nth_error l j = Some (kj, vj) -> cmp c kj k <> Lt ->
    (forall j' k' v', (j' < j)%nat -> nth_error l j' = Some (k', v') -> cmp c k' k = Lt) ->
    first_ge c k l s = Some (s + j)%nat.
  Proof.
    induction l as [|[k1 v1] r IH]; intros k s j kj vj Hj Hge Hlt.
    - destruct j; discriminate.
    - cbn [first_ge]. destruct j as [|j]; cbn [nth_error] in Hj.
      + injection Hj as -> _. rewrite Nat.add_0_r. destruct (cmp c kj k); congruence.
      + rewrite (Hlt 0%nat k1 v1) by (try lia; reflexivity).
        rewrite (IH k (S s) j kj vj Hj Hge).
        * f_equal. lia.
        * intros j' k' v' Hj' Hn. apply (Hlt (S j') k' v'); [lia | exact Hn].
  Qed.

  Lemma first_ge_none_intro (l : list (bytes * V)) : forall k s,
    (forall j k' v', nth_error l j = Some (k', v') -> cmp c k' k = Lt) ->
    first_ge c k l s = None.
  Proof.
    induction l as [|[k1 v1] r IH]; intros k s H; cbn [first_ge]; [reflexivity|].
    rewrite (H 0%nat k1 v1) by reflexivity.
    apply IH. intros j k' v' Hn. apply (H (S j) k' v'). exact Hn.
  Qed.

  Lemma first_ge_some_elim (l : list (bytes * V)) : forall k s i,
    first_ge c k l s = Some i ->
    (s <= i)%nat /\
    (exists ki vi, nth_error l (i - s) = Some (ki, vi) /\ cmp c ki k <> Lt) /\
    (forall j' k' v', (j' < i - s)%nat -> nth_error l j' = Some (k', v') -> cmp c k' k = Lt).
  Proof.
    induction l as [|[k1 v1] r IH]; intros k s i H; cbn [first_ge] in H; [discriminate|].
    destruct (cmp c k1 k) eqn:E.
    - injection H as <-. rewrite Nat.sub_diag. split; [lia|]. split.
      + exists k1, v1. split; [reflexivity | congruence].
      + intros; lia.
    - apply IH in H as (H1 & (ki & vi & H2 & H3) & H4). split; [lia|]. split.
      + exists ki, vi. split; [|exact H3]. replace (i - s)%nat with (S (i - S s)) by lia. exact H2.
      + intros j' k' v' Hj Hn. destruct j' as [|j']; cbn [nth_error] in Hn.
        * injection Hn as <- _. exact E.
        * apply (H4 j' k' v'); [lia | exact Hn].
    - injection H as <-. rewrite Nat.sub_diag. split; [lia|]. split.
      + exists k1, v1. split; [reflexivity | congruence].
      + intros; lia.
  Qed.

  Lemma first_ge_none_elim (l : list (bytes * V)) : forall k s,
    first_ge c k l s = None -> forall j k' v', nth_error l j = Some (k', v') -> cmp c k' k = Lt.
  Proof.
    induction l as [|[k1 v1] r IH]; intros k s H j k' v' Hn; [destruct j; discriminate|].
    cbn [first_ge] in H. destruct (cmp c k1 k) eqn:E; try discriminate.
    destruct j as [|j]; cbn [nth_error] in Hn.
    - injection Hn as <- _. exact E.
    - eapply IH; eauto.
  Qed.
End Laws.
