(* Base/OrderPre.v — the WEAKER comparer contract: a total PREORDER on byte strings.
   LevelDB's Comparer only has to define a total order in which keys that compare equal ARE the same user key; it
   need not be injective (ASCII-case-insensitive order, numeric order with several spellings of one number —
   goleveldb's own test suite has numberComparer).  [comparer_ok] (Base/Order.v) additionally demands
   cmp a b = Eq <-> a = b (field cmp_eq); [comparer_pre_ok] replaces that field by reflexivity and by compatibility
   of Eq with the order.  Every comparer_ok comparer is comparer_pre_ok (comparer_ok_pre). *)
From GL Require Export Base.Order.

Record comparer_pre_ok (c : comparer) : Prop := {
  pre_refl  : forall a, cmp c a a = Eq;
  pre_opp   : forall a b, cmp c b a = CompOpp (cmp c a b);
  pre_trans : forall a b d, cmp c a b = Lt -> cmp c b d = Lt -> cmp c a d = Lt;
  (* keys that compare equal are interchangeable in every comparison *)
  pre_eq_l  : forall a b d, cmp c a b = Eq -> cmp c a d = cmp c b d;
  pre_sep_ok  : forall a b x, sep c a b = Some x -> cmp c a x <> Gt /\ cmp c x b = Lt;
  pre_succ_ok : forall b x, succ c b = Some x -> cmp c b x <> Gt
}.

(* the equivalence "is the same user key" *)
Definition keq (c : comparer) (a b : bytes) : Prop := cmp c a b = Eq.

Lemma comparer_ok_pre c : comparer_ok c -> comparer_pre_ok c.
Proof.
  intros ok. constructor.
  - intros a. apply (cmp_eq c ok). reflexivity.
  - apply (cmp_opp c ok).
  - apply (cmp_trans c ok).
  - intros a b d H. apply (cmp_eq c ok) in H. subst. reflexivity.
  - apply (sep_ok c ok).
  - apply (succ_ok c ok).
Qed.

Section PreLaws.
  Variable c : comparer.
  Hypothesis ok : comparer_pre_ok c.

  Lemma pcmp_refl a : cmp c a a = Eq.
  Proof. apply (pre_refl c ok). Qed.

  Lemma pcmp_eq_sym a b : cmp c a b = Eq -> cmp c b a = Eq.
  Proof. intros H. rewrite (pre_opp c ok a b), H. reflexivity. Qed.

  Lemma pcmp_eq_l a b d : cmp c a b = Eq -> cmp c a d = cmp c b d.
  Proof. apply (pre_eq_l c ok). Qed.

  Lemma pcmp_eq_r a b d : cmp c a b = Eq -> cmp c d a = cmp c d b.
  Proof.
    intros H. rewrite (pre_opp c ok a d), (pre_opp c ok b d), (pcmp_eq_l a b d H). reflexivity.
  Qed.

  Lemma pcmp_eq_trans a b d : cmp c a b = Eq -> cmp c b d = Eq -> cmp c a d = Eq.
  Proof. intros H1 H2. rewrite (pcmp_eq_l a b d H1). exact H2. Qed.

  Lemma pcmp_gt_lt a b : cmp c a b = Gt <-> cmp c b a = Lt.
  Proof. rewrite (pre_opp c ok a b). destruct (cmp c a b); cbn; split; congruence. Qed.

  Lemma pcmp_lt_gt a b : cmp c a b = Lt <-> cmp c b a = Gt.
  Proof. rewrite (pre_opp c ok a b). destruct (cmp c a b); cbn; split; congruence. Qed.

  Lemma plt_irrefl a : ~ lt c a a.
  Proof. unfold lt. rewrite pcmp_refl. discriminate. Qed.

  Lemma plt_trans a b d : lt c a b -> lt c b d -> lt c a d.
  Proof. apply (pre_trans c ok). Qed.

  Lemma ple_lt_trans a b d : le c a b -> lt c b d -> lt c a d.
  Proof.
    unfold le, lt. intros H1 H2. destruct (cmp c a b) eqn:E.
    - rewrite (pcmp_eq_l a b d E). exact H2.
    - eapply (pre_trans c ok); eauto.
    - congruence.
  Qed.

  Lemma plt_le_trans a b d : lt c a b -> le c b d -> lt c a d.
  Proof.
    unfold le, lt. intros H1 H2. destruct (cmp c b d) eqn:E.
    - rewrite <- (pcmp_eq_r b d a E). exact H1.
    - eapply (pre_trans c ok); eauto.
    - congruence.
  Qed.

  Lemma ple_trans a b d : le c a b -> le c b d -> le c a d.
  Proof.
    intros H1 H2. destruct (cmp c b d) eqn:E.
    - unfold le. rewrite <- (pcmp_eq_r b d a E). exact H1.
    - unfold le. rewrite (ple_lt_trans a b d H1 E). discriminate.
    - unfold le in H2. congruence.
  Qed.

  Lemma ple_refl a : le c a a.
  Proof. unfold le. rewrite pcmp_refl. discriminate. Qed.

  Lemma pnot_lt_le a b : ~ lt c a b <-> le c b a.
  Proof.
    unfold lt, le. rewrite (pre_opp c ok a b). destruct (cmp c a b); cbn; split; intros H; congruence.
  Qed.

  (* antisymmetry up to the equivalence *)
  Lemma ple_antisym a b : le c a b -> le c b a -> cmp c a b = Eq.
  Proof.
    unfold le. intros H1 H2. rewrite (pre_opp c ok a b) in H2. destruct (cmp c a b); cbn in *; congruence.
  Qed.

  Lemma plt_total a b : lt c a b \/ cmp c a b = Eq \/ lt c b a.
  Proof.
    unfold lt. destruct (cmp c a b) eqn:E.
    - right; left. reflexivity.
    - left; reflexivity.
    - right; right. apply pcmp_gt_lt. exact E.
  Qed.

End PreLaws.

(* a comparer built by first mapping the keys through any function inherits the preorder laws *)
Definition mapped_cmp (c : comparer) (f : bytes -> bytes) : comparer :=
  {| cmp := fun a b => cmp c (f a) (f b); sep := fun _ _ => None; succ := fun _ => None |}.

Lemma mapped_cmp_pre_ok c f : comparer_ok c -> comparer_pre_ok (mapped_cmp c f).
Proof.
  intros ok. constructor; cbn.
  - intros a. apply (cmp_eq c ok). reflexivity.
  - intros a b. apply (cmp_opp c ok).
  - intros a b d. apply (cmp_trans c ok).
  - intros a b d H. apply (cmp_eq c ok) in H. rewrite H. reflexivity.
  - discriminate.
  - discriminate.
Qed.
