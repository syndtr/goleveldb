(* Base/VarintProofs.v — slicing lemmas and the uvarint round trip. *)
From GL Require Import Base.BytesProofs Base.Varint.
From Coq Require Import ZArith Lia.

Lemma lenN_nil {A} : lenN (@nil A) = 0.
Proof. reflexivity. Qed.

Lemma lenN_cons {A} (x : A) l : lenN (x :: l) = 1 + lenN l.
Proof. unfold lenN. cbn [length]. lia. Qed.

Lemma lenN_app {A} (a b : list A) : lenN (a ++ b) = lenN a + lenN b.
Proof. unfold lenN. rewrite app_length. lia. Qed.

Lemma lenN_0 {A} (l : list A) : lenN l = 0 -> l = [].
Proof. unfold lenN. destruct l; cbn [length]; [reflexivity | lia]. Qed.

Lemma dropN_0 {A} (l : list A) : dropN 0 l = l.
Proof. reflexivity. Qed.

Lemma takeN_0 {A} (l : list A) : takeN 0 l = [].
Proof. reflexivity. Qed.

Lemma dropN_app {A} (a b : list A) : dropN (lenN a) (a ++ b) = b.
Proof.
  unfold dropN, lenN. rewrite Nat2N.id, skipn_app, skipn_all, Nat.sub_diag. reflexivity.
Qed.

Lemma dropN_app_ge {A} n (a b : list A) : lenN a <= n -> dropN n (a ++ b) = dropN (n - lenN a) b.
Proof.
  unfold dropN, lenN. intros H. rewrite skipn_app.
  rewrite (skipn_all2 a) by lia. cbn [app]. f_equal. lia.
Qed.

Lemma dropN_app_le {A} n (a b : list A) : n <= lenN a -> dropN n (a ++ b) = dropN n a ++ b.
Proof.
  unfold dropN, lenN. intros H. rewrite skipn_app.
  replace (N.to_nat n - length a)%nat with 0%nat by lia. reflexivity.
Qed.

Lemma takeN_app {A} (a b : list A) : takeN (lenN a) (a ++ b) = a.
Proof.
  unfold takeN, lenN. rewrite Nat2N.id, firstn_app, firstn_all, Nat.sub_diag. cbn. apply app_nil_r.
Qed.

Lemma takeN_app_le {A} n (a b : list A) : n <= lenN a -> takeN n (a ++ b) = takeN n a.
Proof.
  unfold takeN, lenN. intros H. rewrite firstn_app.
  replace (N.to_nat n - length a)%nat with 0%nat by lia. cbn. apply app_nil_r.
Qed.

Lemma takeN_app_ge {A} n (a b : list A) : lenN a <= n -> takeN n (a ++ b) = a ++ takeN (n - lenN a) b.
Proof.
  unfold takeN, lenN. intros H. rewrite firstn_app. rewrite firstn_all2 by lia. f_equal. f_equal. lia.
Qed.

Lemma takeN_all {A} n (l : list A) : lenN l <= n -> takeN n l = l.
Proof. unfold takeN, lenN. intros H. apply firstn_all2. lia. Qed.

Lemma dropN_all {A} n (l : list A) : lenN l <= n -> dropN n l = [].
Proof. unfold dropN, lenN. intros H. apply skipn_all2. lia. Qed.

Lemma takeN_dropN {A} n (l : list A) : takeN n l ++ dropN n l = l.
Proof. apply firstn_skipn. Qed.

Lemma lenN_takeN {A} n (l : list A) : n <= lenN l -> lenN (takeN n l) = n.
Proof. unfold takeN, lenN. intros H. rewrite firstn_length. lia. Qed.

Lemma lenN_dropN {A} n (l : list A) : lenN (dropN n l) = lenN l - n.
Proof. unfold dropN, lenN. rewrite skipn_length. lia. Qed.

Lemma skipn_skipn' {A} (x y : nat) (l : list A) : skipn x (skipn y l) = skipn (y + x) l.
Proof.
  revert l. induction y as [|y IH]; intros l; [reflexivity|].
  destruct l as [|a l]; cbn [skipn plus]; [destruct x; reflexivity | apply IH].
Qed.

Lemma dropN_dropN {A} n m (l : list A) : dropN n (dropN m l) = dropN (m + n) l.
Proof. unfold dropN. rewrite skipn_skipn'. f_equal. lia. Qed.

Lemma sliceN_app3 {A} (a b d : list A) : sliceN (lenN a) (lenN a + lenN b) (a ++ b ++ d) = b.
Proof.
  unfold sliceN. rewrite dropN_app. replace (lenN a + lenN b - lenN a) with (lenN b) by lia.
  apply takeN_app.
Qed.

Lemma lenN_le32 x : lenN (le32 x) = 4.
Proof. unfold lenN, le32. rewrite le_encode_length. reflexivity. Qed.

Lemma land_low_shifted a b s : a < 2 ^ s -> N.land a (b * 2 ^ s) = 0.
Proof.
  intros H. apply N.bits_inj. intros n. rewrite N.land_spec, N.bits_0.
  destruct (N.ltb_spec n s) as [L|L].
  - rewrite N.mul_pow2_bits_low by exact L. apply andb_false_r.
  - destruct (N.eq_dec a 0) as [->|Na]; [rewrite N.bits_0; reflexivity|].
    rewrite (N.bits_above_log2 a n); [reflexivity|].
    apply N.log2_lt_pow2; [lia|].
    eapply N.lt_le_trans; [exact H|]. apply N.pow_le_mono_r; lia.
Qed.

Lemma lor_shifted a b s : a < 2 ^ s -> N.lor a (N.shiftl b s) = a + b * 2 ^ s.
Proof.
  intros H. rewrite N.shiftl_mul_pow2.
  rewrite <- N.lxor_lor by (apply land_low_shifted; exact H).
  symmetry. apply N.add_nocarry_lxor. apply land_low_shifted; exact H.
Qed.

Lemma lor_128 y : y < 256 -> N.lor y 128 = y mod 128 + 128.
Proof.
  intros H.
  assert (E : y = y mod 128 + (y / 128) * 2 ^ 7) by (change (2 ^ 7) with 128; pose proof (N.div_mod' y 128); lia).
  assert (R : y mod 128 < 2 ^ 7) by (change (2 ^ 7) with 128; apply N.mod_lt; lia).
  assert (Q : y / 128 = 0 \/ y / 128 = 1).
  { assert (y / 128 < 2) by (apply N.div_lt_upper_bound; lia). lia. }
  assert (L : N.lor (y mod 128) 128 = y mod 128 + 128).
  { change 128 with (N.shiftl 1 7) at 2. rewrite lor_shifted by exact R. reflexivity. }
  destruct Q as [Q|Q]; rewrite Q in E.
  - rewrite N.mul_0_l, N.add_0_r in E. rewrite E at 1. exact L.
  - change (1 * 2 ^ 7) with 128 in E. rewrite <- L in E.
    rewrite E at 1. rewrite <- N.lor_assoc. rewrite N.lor_diag. exact L.
Qed.

Lemma cont_byte_bounds x : 128 <= N.lor (x mod 256) 128 < 256.
Proof.
  rewrite lor_128 by (apply N.mod_lt; lia).
  assert ((x mod 256) mod 128 < 128) by (apply N.mod_lt; lia). lia.
Qed.

Lemma cont_byte_low x : N.land (N.lor (x mod 256) 128) 127 = x mod 128.
Proof.
  rewrite lor_128 by (apply N.mod_lt; lia).
  change 127 with (N.ones 7). rewrite N.land_ones. change (2 ^ 7) with 128.
  rewrite <- (N.mul_1_l 128) at 2. rewrite N.mod_add by lia.
  rewrite N.mod_mod by lia.
  change 256 with (128 * 2). rewrite N.mod_mul_r by lia.
  rewrite N.mul_comm, N.mod_add by lia. apply N.mod_mod. lia.
Qed.

Lemma put_uvarint_f_length fuel x :
  1 <= lenN (put_uvarint_f fuel x) <= N.of_nat fuel + 1.
Proof.
  revert x. induction fuel as [|f IH]; intros x; cbn [put_uvarint_f].
  - rewrite lenN_cons, lenN_nil. lia.
  - destruct (128 <=? x).
    + rewrite lenN_cons. specialize (IH (N.shiftr x 7)). lia.
    + rewrite lenN_cons, lenN_nil. lia.
Qed.

(* every byte of an encoding but the last one is a continuation byte *)
Lemma put_uvarint_f_firstn fuel : forall x n, (n < length (put_uvarint_f fuel x))%nat ->
  Forall (fun b => 128 <= b) (firstn n (put_uvarint_f fuel x)).
Proof.
  induction fuel as [|f IH]; intros x n Hn; cbn [put_uvarint_f] in *.
  - cbn [length] in Hn. replace n with O by lia. constructor.
  - destruct (128 <=? x).
    + destruct n as [|n]; [constructor|]. cbn [firstn]. constructor.
      * pose proof (cont_byte_bounds x). lia.
      * apply IH. cbn [length] in Hn. lia.
    + cbn [length] in Hn. replace n with O by lia. constructor.
Qed.

Lemma put_uvarint_length x : 1 <= lenN (put_uvarint x) <= 10.
Proof. unfold put_uvarint. pose proof (put_uvarint_f_length 9 x). lia. Qed.

Lemma put_uvarint_f_wf fuel x : wf_bytes (put_uvarint_f fuel x).
Proof.
  revert x. induction fuel as [|f IH]; intros x; cbn [put_uvarint_f].
  - constructor; [|constructor]. unfold wf_byte. apply N.mod_lt. lia.
  - destruct (128 <=? x).
    + constructor; [|apply IH]. unfold wf_byte. apply cont_byte_bounds.
    + constructor; [|constructor]. unfold wf_byte. apply N.mod_lt. lia.
Qed.

Lemma put_uvarint_wf x : wf_bytes (put_uvarint x).
Proof. apply put_uvarint_f_wf. Qed.

(* the decoding loop undoes the encoding loop; [i] bytes already consumed, value so far [acc].  fuel + i = 9 ties
   the two counters together: at fuel 0 both loops stand on the tenth byte, which holds 0 or 1 *)
Lemma uvarint_f_put fuel : forall i acc x rest,
  N.of_nat fuel + i = 9 -> acc < 2 ^ (7 * i) -> x * 2 ^ (7 * i) < 2 ^ 64 ->
  uvarint_f (put_uvarint_f fuel x ++ rest) i acc (7 * i)
  = UvOk (acc + x * 2 ^ (7 * i)) (i + lenN (put_uvarint_f fuel x)).
Proof.
  induction fuel as [|f IH]; intros i acc x rest Hi Hacc Hx.
  - assert (i = 9) by lia. subst i. cbn [put_uvarint_f app uvarint_f].
    change (7 * 9) with 63 in *. change (2 ^ 64) with (2 * 2 ^ 63) in Hx.
    assert (x < 2) by nia.
    rewrite N.mod_small by lia.
    change (9 =? 10) with false. change (9 =? 9) with true. cbn [andb].
    replace (x <? 128) with true by lia. replace (1 <? x) with false by lia.
    rewrite lor_shifted by exact Hacc. rewrite lenN_cons, lenN_nil. reflexivity.
  - cbn [put_uvarint_f].
    assert (Hi10 : (i =? 10) = false) by lia.
    assert (Hi9 : (i =? 9) = false) by lia.
    destruct (N.leb_spec 128 x) as [Hge|Hlt].
    + cbn [app uvarint_f]. rewrite Hi10.
      pose proof (cont_byte_bounds x) as Hb.
      replace (N.lor (x mod 256) 128 <? 128) with false by lia.
      rewrite cont_byte_low.
      rewrite lor_shifted by exact Hacc.
      replace (7 * i + 7) with (7 * (i + 1)) by lia.
      rewrite N.shiftr_div_pow2. change (2 ^ 7) with 128.
      assert (P : 2 ^ (7 * (i + 1)) = 128 * 2 ^ (7 * i)).
      { replace (7 * (i + 1)) with (7 + 7 * i) by lia. rewrite N.pow_add_r. reflexivity. }
      (* from here on only x = 128 * q + r with r < 128 matters *)
      assert (Hm : x mod 128 < 128) by (apply N.mod_lt; lia). pose proof (N.div_mod' x 128) as Hd. clear Hb.
      set (q := x / 128) in *. set (r := x mod 128) in *. set (w := 2 ^ (7 * i)) in *.
      assert (Hr : r * w <= 127 * w) by (apply N.mul_le_mono_r; lia).
      rewrite Hd, N.mul_add_distr_r in Hx.
      rewrite IH, P.
      * f_equal; [|rewrite lenN_cons; lia]. rewrite Hd. ring.
      * lia.
      * lia.
      * lia.
    + cbn [app uvarint_f]. rewrite Hi10, Hi9. cbn [andb].
      rewrite N.mod_small by lia.
      replace (x <? 128) with true by lia.
      rewrite lor_shifted by exact Hacc. rewrite lenN_cons, lenN_nil. reflexivity.
Qed.

Theorem uvarint_put x rest : x < 2 ^ 64 ->
  uvarint (put_uvarint x ++ rest) = UvOk x (lenN (put_uvarint x)).
Proof.
  intros H. unfold uvarint, put_uvarint.
  pose proof (uvarint_f_put 9 0 0 x rest) as E. change (7 * 0) with 0 in E.
  rewrite N.pow_0_r, N.mul_1_r in E. rewrite E by (try reflexivity; lia). f_equal.
Qed.

(* a decoded varint consumed a non-empty prefix of the buffer *)
Lemma uvarint_f_ok_bounds buf : forall i x s v n,
  uvarint_f buf i x s = UvOk v n -> i < n /\ n <= i + lenN buf.
Proof.
  induction buf as [|b rest IH]; intros i x s v n H; cbn [uvarint_f] in H; [discriminate|].
  destruct (i =? 10) eqn:E10; [discriminate|].
  destruct (b <? 128).
  - destruct ((i =? 9) && (1 <? b)) eqn:E9; [discriminate|]. injection H as _ <-.
    rewrite lenN_cons. lia.
  - apply IH in H. rewrite lenN_cons. lia.
Qed.
