(* Lsm/InsertProofs.v — the batch insert of versionStaging.finish (binary search for the insert index instead of a
   sort): inserting an ordered run of tables at searchMin(amax) into an ordered level keeps the level ordered when every
   table of the level lies entirely on one side of the run; the level-0 insert by file number keeps the numbers
   descending; sorting an already ordered run is the identity. *)
From GL Require Import Codec.IKeyProofs Lsm.LsmProofs Lsm.Pick Lsm.PickBase Lsm.WfLsm.
From Coq Require Import Arith Lia.

Local Open Scope nat_scope.

Section Insert.
  Variable c : comparer.
  Hypothesis ok : comparer_ok c.
  Variable p : kparams.

  Notation lt := (Order.lt c).
  Notation le := (Order.le c).

  Definition ents_lt (A B : list entry) : Prop :=
    forall x y, In x A -> In y B -> cmp c (e_uk x) (e_uk y) = Lt.
  (* the table lies entirely below or entirely above the entries I *)
  Definition sep (s : table) (I : list entry) : Prop := ents_lt (t_entries s) I \/ ents_lt I (t_entries s).

  Lemma sep_incl s I J : sep s I -> incl J I -> sep s J.
  Proof. intros [H|H] Hi; [left|right]; intros x y Hx Hy; apply H; auto. Qed.

  (* getRange: the maximum is the bound of a member *)
  Lemma get_range_from_mem tf : forall imin imax,
    snd (get_range_from c imin imax tf) = imax \/ exists t, In t tf /\ snd (get_range_from c imin imax tf) = imax_of t.
  Proof.
    induction tf as [|t tf IH]; intros imin imax; cbn [get_range_from]; [left; reflexivity|]. cbv zeta.
    match goal with |- context [get_range_from c ?a ?b tf] => destruct (IH a b) as [E|[t' [Ht' E]]] end.
    - rewrite E. destruct (icmp c (imax_of t) imax); [left; reflexivity|left; reflexivity|].
      right. exists t. split; [left; reflexivity|reflexivity].
    - right. exists t'. split; [right; exact Ht'|exact E].
  Qed.

  Lemma get_range_mem tf r : get_range c tf = POk r -> exists t, In t tf /\ snd r = imax_of t.
  Proof.
    destruct tf as [|t tf]; [discriminate|]. cbn [get_range]. intros H. injection H as <-.
    destruct (get_range_from_mem tf (imin_of t) (imax_of t)) as [E|[t' [Ht' E]]].
    - exists t. split; [left; reflexivity|exact E].
    - exists t'. split; [right; exact Ht'|exact E].
  Qed.

  Section Deep.
    Variable nt A : list table.
    Hypothesis nt_ok : forall t, In t nt -> tbl_ok c p t.
    Hypothesis nt_sorted : level_sorted c nt.
    Hypothesis A_ok : forall t, In t A -> tbl_ok c p t.
    Hypothesis A_sorted : level_sorted c A.
    Variable amax : ikey.
    Hypothesis amax_in : exists a, In a A /\ amax = imax_of a.
    Hypothesis nt_sep : forall s, In s nt -> sep s (LE A).

    Let idx := search_min_idx c nt amax.
    Let f := fun i => match icmp c (imin_of (tnth nt i)) amax with Lt => false | _ => true end.

    Lemma amax_entry : exists a, In a A /\ In (t_hi a) (LE A) /\ amax = e_ikey (t_hi a).
    Proof.
      destruct amax_in as [a [Ha E]]. exists a. split; [exact Ha|]. split; [|exact E].
      apply LE_in. exists a. split; [exact Ha|]. apply t_hi_in. apply (A_ok a Ha).
    Qed.

    Lemma imin_increasing i j : i < j -> j < length nt -> icmp c (imin_of (tnth nt i)) (imin_of (tnth nt j)) = Lt.
    Proof.
      intros Hij Hj. apply icmp_ukey_lt. unfold imin_of. cbn [e_ikey uk].
      apply (level_sorted_pair c nt i j nt_sorted Hij Hj); apply t_lo_in; apply nt_ok; apply nth_In; lia.
    Qed.

    Lemma f_monotone : monotone f 0 (length nt).
    Proof. apply (monotone_not_below c ok (fun i => imin_of (tnth nt i))). exact imin_increasing. Qed.

    Lemma below_idx s : In s (firstn idx nt) -> ents_lt (t_entries s) (LE A).
    Proof.
      intros Hs. apply (in_firstn_nth no_table) in Hs as [i [Hi [Hn E]]].
      destruct (sort_search_spec (length nt) f f_monotone) as [_ [K2 _]].
      specialize (K2 i Hi). unfold f in K2. fold (tnth nt i) in E. rewrite E in K2.
      assert (Hin : In s nt) by (rewrite <- E; apply nth_In; exact Hn).
      destruct (nt_sep s Hin) as [H|H]; [exact H|]. exfalso.
      destruct amax_entry as [a [Ha [Hh Ea]]].
      pose proof (H (t_hi a) (t_lo s) Hh (t_lo_in s (proj2 (nt_ok s Hin)))) as L.
      assert (L2 : icmp c amax (imin_of s) = Lt) by (rewrite Ea; apply icmp_ukey_lt; exact L).
      destruct (icmp c (imin_of s) amax) eqn:E2; try discriminate.
      apply (icmp_irrefl c ok amax). eapply (icmp_trans c ok); eauto.
    Qed.

    Lemma above_idx s : In s (skipn idx nt) -> ents_lt (LE A) (t_entries s).
    Proof.
      intros Hs. apply (in_skipn_nth no_table) in Hs as [i [Hi [Hn E]]].
      destruct (sort_search_spec (length nt) f f_monotone) as [_ [_ K3]].
      specialize (K3 i Hi Hn). unfold f in K3. fold (tnth nt i) in E. rewrite E in K3.
      assert (Hin : In s nt) by (rewrite <- E; apply nth_In; exact Hn).
      destruct (nt_sep s Hin) as [H|H]; [|exact H]. exfalso.
      destruct amax_entry as [a [Ha [Hh Ea]]].
      pose proof (H (t_lo s) (t_hi a) (t_lo_in s (proj2 (nt_ok s Hin))) Hh) as L.
      assert (L2 : icmp c (imin_of s) amax = Lt) by (rewrite Ea; apply icmp_ukey_lt; exact L).
      rewrite L2 in K3. discriminate.
    Qed.

    Theorem insert_sorted : level_sorted c (firstn idx nt ++ A ++ skipn idx nt).
    Proof.
      pose proof nt_sorted as S0. rewrite <- (firstn_skipn idx nt) in S0.
      apply (level_sorted_app c) in S0 as [S1 [S2 S3]].
      apply (level_sorted_app c). split; [exact S1|]. split.
      - apply (level_sorted_app c). split; [exact A_sorted|]. split; [exact S2|].
        intros a s Ha Hs x y Hx Hy. apply (above_idx s Hs x y); [|exact Hy].
        apply LE_in. exists a. split; assumption.
      - intros s b Hs Hb x y Hx Hy. apply in_app_or in Hb as [Hb|Hb].
        + apply (below_idx s Hs x y Hx). apply LE_in. exists b. split; assumption.
        + apply (S3 s b Hs Hb x y Hx Hy).
    Qed.
  End Deep.

  (* sortByKey of an ordered run is the identity *)
  Lemma sort_by_key_sorted A : (forall t, In t A -> tbl_ok c p t) -> level_sorted c A -> sort_by_key c A = A.
  Proof.
    induction A as [|a A IH]; intros Hok Hs; [reflexivity|]. cbn [sort_by_key fold_right].
    fold (sort_by_key c A). destruct Hs as [Hall Hs].
    rewrite IH by (try exact Hs; intros t Ht; apply Hok; right; exact Ht).
    destruct A as [|b A']; [reflexivity|]. cbn [ins_key].
    assert (L : cmp c (e_uk (t_lo a)) (e_uk (t_lo b)) = Lt).
    { rewrite Forall_forall in Hall. apply (Hall b (or_introl eq_refl)); apply t_lo_in; apply Hok; [left|right; left]; reflexivity. }
    unfold less_by_key, imin_of, icmp. cbn [e_ikey uk].
    rewrite (cmp_opp c ok), L. reflexivity.
  Qed.

  Lemma nums_sorted_app A B : nums_sorted (A ++ B) <->
    nums_sorted A /\ nums_sorted B /\ (forall a b, In a A -> In b B -> (t_num b < t_num a)%N).
  Proof.
    induction A as [|a A IH]; cbn [app nums_sorted].
    - split; [intros H; repeat split; [exact H|intros a b []]|intros [_ [H _]]; exact H].
    - rewrite IH, Forall_app, !Forall_forall. split.
      + intros [[F1 F2] [H1 [H2 H3]]]. repeat split; try assumption.
        intros a' b [<-|Ha] Hb; [apply F2; exact Hb|apply H3; assumption].
      + intros [[F1 H1] [H2 H3]]. repeat split; try assumption.
        * intros b Hb. apply H3; [left; reflexivity|exact Hb].
        * intros a' b Ha Hb. apply H3; [right; exact Ha|exact Hb].
  Qed.

  Lemma nums_sorted_filter g l : nums_sorted l -> nums_sorted (filter g l).
  Proof.
    induction l as [|a l IH]; [auto|]. intros [Hall Hs]. cbn [filter].
    destruct (g a); [|apply IH; exact Hs]. split; [|apply IH; exact Hs].
    rewrite Forall_forall in *. intros b Hb. apply Hall. apply filter_In in Hb. apply Hb.
  Qed.

  Lemma nums_sorted_nth l i j : nums_sorted l -> i < j -> j < length l -> (t_num (tnth l j) < t_num (tnth l i))%N.
  Proof.
    revert i j; induction l as [|a l IH]; intros i j Hs Hij Hj; [cbn in Hj; lia|].
    destruct Hs as [Hall Hs]. destruct j as [|j]; [lia|]. cbn [length] in Hj. unfold tnth.
    destruct i as [|i]; cbn [nth].
    - rewrite Forall_forall in Hall. apply Hall. apply nth_In. lia.
    - apply (IH i j Hs); lia.
  Qed.

  Theorem insert_by_num nt t : nums_sorted nt -> (forall s, In s nt -> t_num s <> t_num t) ->
    nums_sorted (firstn (search_num_less nt (t_num t)) nt ++ [t] ++ skipn (search_num_less nt (t_num t)) nt).
  Proof.
    intros Hs Hf. set (n := t_num t). set (g := fun i => (t_num (tnth nt i) <? n)%N).
    assert (Hm : monotone g 0 (length nt)).
    { intros a b _ Hab Hb Ga. destruct (Nat.eq_dec a b) as [->|Hne]; [exact Ga|]. unfold g in *.
      apply N.ltb_lt in Ga. apply N.ltb_lt. pose proof (nums_sorted_nth nt a b Hs ltac:(lia) Hb). lia. }
    destruct (sort_search_spec (length nt) g Hm) as [_ [K2 K3]].
    fold (search_num_less nt n) in K2, K3. set (idx := search_num_less nt n) in *.
    pose proof Hs as S0. rewrite <- (firstn_skipn idx nt) in S0. apply nums_sorted_app in S0 as [S1 [S2 S3]].
    apply nums_sorted_app. split; [exact S1|]. split.
    - apply (nums_sorted_app [t]). split; [split; [constructor|exact I]|]. split; [exact S2|].
      intros a b [<-|[]] Hb. apply (in_skipn_nth no_table) in Hb as [i [Hi [Hn E]]].
      specialize (K3 i Hi Hn). unfold g in K3. fold (tnth nt i) in E. rewrite E in K3. apply N.ltb_lt. exact K3.
    - intros a b Ha Hb. apply in_app_or in Hb as [[<-|[]]|Hb]; [|apply S3; assumption].
      apply (in_firstn_nth no_table) in Ha as [i [Hi [Hn E]]].
      specialize (K2 i Hi). unfold g in K2. fold (tnth nt i) in E. rewrite E in K2. apply N.ltb_ge in K2.
      assert (In a nt) by (rewrite <- E; apply nth_In; exact Hn).
      pose proof (Hf a H). fold n in H0. lia.
  Qed.
End Insert.
