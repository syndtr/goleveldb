(* Lsm/WritePathTable.v — C01_writer_output_ok: the file the model table writer (Codec/Table.v, with the DB's iComparer
   Lsm/WritePath.v iwc and the session's options) produces for a strictly increasing non-empty list of stored internal
   keys passes the byte-level format check of the read path (Lsm/ReadPath.v tfile_okb) with recorded bounds = first and
   last key, and decodes (Codec/TableCheck.v table_check) to exactly the pairs written.  This discharges "the table
   writer produces files passing tfile_okb" for the MODEL writer; that the Go writer's bytes are the model writer's bytes
   is the correspondence (C13 KWrite, C01 KFlushBytes/KCompactBytes).
   Layers used: C13 (TableWriteProofs / TableWriteSnappyProofs through Lsm/WriterExact.v), C15 (IKeyProofs isep_law,
   isucc_law), ReadPathKey. *)
From GL Require Import Base.BytesProofs Codec.IKeyProofs Codec.TableProofs Codec.TableCheck Codec.TableSizes Lsm.Lsm
  Lsm.ReadPath Lsm.ReadPathKey Lsm.WritePath Lsm.WriterExact.
From Coq Require Import Lia.
Open Scope N_scope.

(* NewReader never uses the comparer for anything but the (unsliced) metaindex iterator *)
Lemma open_table_cmp_indep tp crc decompress fcontains c1 c2 file fname verify :
  open_table tp crc decompress fcontains c1 file fname verify = open_table tp crc decompress fcontains c2 file fname verify.
Proof. reflexivity. Qed.

Section Iwc.
  Variable c : comparer.
  Hypothesis ok : comparer_ok c.
  Variable p : kparams.
  Hypothesis pok : kparams_ok p.

  Lemma enc_short_dec k s : enc_short k = Some s -> exists z, k = Some z /\ s = encode_ikey z /\ wf_bytes (uk z).
  Proof.
    unfold enc_short. destruct k as [z|]; [|discriminate]. destruct (wf_bytesb (uk z)) eqn:W; [|discriminate].
    intros H. injection H as <-. exists z. split; [reflexivity|]. split; [reflexivity|]. apply wf_bytesb_ok. exact W.
  Qed.

  Lemma isep_num a b z : isep c p a b = Some z -> num z = keyMaxNum p.
  Proof.
    unfold isep. destruct (sep c (uk a) (uk b)); [|discriminate].
    destruct (_ && _); [|discriminate]. intros H. injection H as <-. reflexivity.
  Qed.
  Lemma isucc_num b z : isucc c p b = Some z -> num z = keyMaxNum p.
  Proof.
    unfold isucc. destruct (succ c (uk b)); [|discriminate].
    destruct (_ && _); [|discriminate]. intros H. injection H as <-. reflexivity.
  Qed.

  Theorem iwc_ok : comparer_ok (iwc c p).
  Proof.
    pose proof (ibc_ok c ok) as [E O T _ _].
    constructor; [exact E | exact O | exact T | |]; cbn [cmp sep succ iwc].
    - intros a b s. destruct (ik_dec a) as [x|] eqn:A; [|discriminate]. destruct (ik_dec b) as [y|] eqn:B; [|discriminate].
      intros H. apply enc_short_dec in H as (z & Ez & -> & Wz).
      pose proof (isep_law c ok p x y z Ez) as [L1 L2].
      assert (D : ik_dec (encode_ikey z) = Some z).
      { apply ik_dec_encode; [exact Wz|]. rewrite (isep_num _ _ _ Ez). exact (maxnum_bound p pok). }
      unfold ibc_cmp. rewrite A, B, D, L1, L2. split; [discriminate|reflexivity].
    - intros b s. destruct (ik_dec b) as [y|] eqn:B; [|discriminate].
      intros H. apply enc_short_dec in H as (z & Ez & -> & Wz).
      pose proof (isucc_law c p y z Ez) as L1.
      assert (D : ik_dec (encode_ikey z) = Some z).
      { apply ik_dec_encode; [exact Wz|]. rewrite (isucc_num _ _ Ez). exact (maxnum_bound p pok). }
      unfold ibc_cmp. rewrite B, D, L1. discriminate.
  Qed.

  (* the empty key is least (Writer.flushPendingBH tests len(key) == 0 for "no next key") *)
  Lemma iwc_empty_least k : cmp (iwc c p) [] k <> Gt.
  Proof.
    cbn [cmp iwc]. unfold ibc_cmp. change (ik_dec []) with (@None ikey).
    destruct (ik_dec k); [discriminate|]. destruct k; cbn; discriminate.
  Qed.

  (* a key not below a decodable key is decodable *)
  Lemma ge_decodable a b x : ik_dec a = Some x -> cmp (ibc c) a b <> Gt -> ik_validb b = true.
  Proof.
    intros A H. unfold ik_validb. destruct (ik_dec b) eqn:B; [reflexivity|].
    exfalso. apply H. cbn [cmp ibc]. unfold ibc_cmp. rewrite A, B. reflexivity.
  Qed.
End Iwc.

Lemma sorted_from_cmp_ext {V} (c1 c2 : comparer) : (forall a b, cmp c1 a b = cmp c2 a b) ->
  forall (l : list (bytes * V)) k, Cursor.sorted_from c1 k l -> Cursor.sorted_from c2 k l.
Proof.
  intros E. induction l as [|[k' v'] r IH]; intros k H; cbn [Cursor.sorted_from] in *; [exact I|].
  destruct H as [H1 H2]. split; [rewrite <- E; exact H1 | apply IH; exact H2].
Qed.
Lemma sorted_cmp_ext {V} (c1 c2 : comparer) : (forall a b, cmp c1 a b = cmp c2 a b) ->
  forall (l : list (bytes * V)), Cursor.sorted c1 l -> Cursor.sorted c2 l.
Proof. intros E [|[k v] r]; cbn [Cursor.sorted]; [trivial | apply sorted_from_cmp_ext; exact E]. Qed.

Lemma forallb_ext_all {A} (f g : A -> bool) l : (forall x, f x = g x) -> forallb f l = forallb g l.
Proof. intros E. induction l as [|x l IH]; [reflexivity|]. cbn [forallb]. rewrite E, IH. reflexivity. Qed.

Lemma sortedb_from_cmp_ext (c1 c2 : comparer) : (forall a b, cmp c1 a b = cmp c2 a b) ->
  forall l k, TableCheck.sortedb_from c1 k l = TableCheck.sortedb_from c2 k l.
Proof.
  intros E. induction l as [|[k' v'] r IH]; intros k; cbn [TableCheck.sortedb_from]; [reflexivity|].
  unfold Order.ltb. rewrite E, IH. reflexivity.
Qed.

Lemma table_wfb_cmp_ext (c1 c2 : comparer) rd ri bl se hs : (forall a b, cmp c1 a b = cmp c2 a b) ->
  table_wfb c1 rd ri bl se hs = table_wfb c2 rd ri bl se hs.
Proof.
  intros E. unfold table_wfb.
  assert (S : TableCheck.sortedb c1 (concat bl) = TableCheck.sortedb c2 (concat bl)).
  { destruct (concat bl) as [|[k v] r]; [reflexivity|]. cbn [TableCheck.sortedb]. apply sortedb_from_cmp_ext. exact E. }
  rewrite S. f_equal. f_equal. f_equal.
  apply forallb_ext_all. intros j.
  rewrite (forallb_ext_all (fun x => Order.leb c1 (fst x) (nth j se [])) (fun x => Order.leb c2 (fst x) (nth j se [])))
    by (intros x; unfold Order.leb; rewrite E; reflexivity).
  rewrite (forallb_ext_all (fun x => Order.ltb c1 (nth j se []) (fst x)) (fun x => Order.ltb c2 (nth j se []) (fst x)))
    by (intros x; unfold Order.ltb; rewrite E; reflexivity).
  reflexivity.
Qed.

Section WriterOutput.
  Variable c : comparer.
  Hypothesis ok : comparer_ok c.
  Variable p : kparams.
  Hypothesis pok : kparams_ok p.
  Variable tp : tparams.
  Hypothesis tp_ok : tparams_ok tp.
  Variable crc : bytes -> N.
  Hypothesis crc_bound : forall b, crc b < 2 ^ 32.
  Variable compress : bytes -> bytes.
  Variable decompress : bytes -> option bytes.
  Hypothesis codec_ok : forall x, decompress (compress x) = Some x.
  Hypothesis compress_ne : forall x, compress x <> [].
  Variable fname : option bytes.
  Variable ufc : bytes -> N -> bytes -> bool.
  Variable verify : bool.
  Variable o : wopts.
  Hypothesis ri_pos : 1 <= wo_ri o.

  Local Notation icr := (ibc c).
  Local Notation icw := (iwc c p).
  Local Notation ri := (wo_ri o).
  Local Notation okb := (tfile_okb c p tp crc decompress fname ufc verify ri).
  Local Notation pairs := (tf_pairs c tp crc decompress fname ufc verify ri).
  Local Notation tbytes := (table_bytes c p tp crc compress o).
  Local Notation sizes_ok := (write_sizes_ok c p tp crc compress o).

  (* table_bytes is Codec/Table.v twrite with a filter generator that has the same name *)
  Lemma table_bytes_twrite kvs data : tbytes kvs = Some data ->
    exists fg, twrite tp crc compress icw (wo_blockSize o) ri (wo_snappy o) fg kvs = Some data /\
      (wo_filter o = None -> fg = None) /\
      match wo_filter o, fg with
      | Some (n, _), Some (n', _) => n = n'
      | None, None => True
      | _, _ => False
      end.
  Proof.
    unfold table_bytes, twrite.
    destruct (tw_append_all tp crc compress icw (wo_blockSize o) ri (wo_snappy o) Table.tw_empty kvs) as [w|]; [|discriminate].
    destruct (wo_filter o) as [[name gen]|].
    - destruct (gen _ _) as [content|]; [|discriminate]. intros H. injection H as <-.
      exists (Some (name, fun _ => content)). split; [reflexivity|]. split; [discriminate|reflexivity].
    - intros H. injection H as <-. exists None. split; [reflexivity|]. split; [reflexivity|exact I].
  Qed.

  Lemma sizes_ok_fg kvs fg :
    match wo_filter o, fg with
    | Some (n, _), Some (n', _) => n = n'
    | None, None => True
    | _, _ => False
    end ->
    table_sizes_ok tp crc compress icw (wo_blockSize o) ri (wo_snappy o)
      (match wo_filter o with Some (name, _) => Some (name, fun _ => []) | None => None end) kvs =
    table_sizes_ok tp crc compress icw (wo_blockSize o) ri (wo_snappy o) fg kvs.
  Proof.
    unfold table_sizes_ok. destruct (wo_filter o) as [[n g]|]; destruct fg as [[n' g']|]; intros H; try contradiction; subst; reflexivity.
  Qed.

  (* the part of tfile_okb about the filter: with no filter policy configured for the writer it holds because the
     reader finds no filter block; with a policy it is the no-false-negative condition of property C16, which the
     correspondence run checks per written table (hypothesis [filter_part] below) *)
  Definition filter_part (f : tfile) : bool :=
    let rd := tf_reader c tp crc decompress fname ufc verify f in
    match table_parse rd with
    | Some (bl, se, hs) => filter_okb c rd bl se hs
    | None => false
    end.

  Theorem writer_output_ok num kvs data :
    Cursor.sorted icr kvs -> kvs <> [] -> Forall (fun kv => key_okb p (fst kv) = true) kvs ->
    tbytes kvs = Some data -> sizes_ok kvs = true ->
    (wo_filter o = None \/ filter_part (mkTF num (key_first kvs) (key_last kvs) data) = true) ->
    okb (mkTF num (key_first kvs) (key_last kvs) data) = true /\
    pairs (mkTF num (key_first kvs) (key_last kvs) data) = kvs /\
    table_check icr (tf_reader c tp crc decompress fname ufc verify (mkTF num (key_first kvs) (key_last kvs) data)) ri = Some kvs.
  Proof.
    intros Hs Hne Hk Hb Hsz Hfl.
    destruct (table_bytes_twrite kvs data Hb) as (fg & Hw & Hfg0 & Hfgn).
    unfold write_sizes_ok in Hsz. apply andb_prop in Hsz as [Hsz1 Hsz2]. rewrite Hb in Hsz2.
    rewrite (sizes_ok_fg kvs fg Hfgn) in Hsz1.
    assert (Hlen : lenN data < 2 ^ 32) by lia.
    assert (Hs' : Cursor.sorted icw kvs) by (apply (sorted_cmp_ext icr icw); [reflexivity|exact Hs]).
    destruct (table_written_exact tp tp_ok crc crc_bound compress decompress codec_ok compress_ne (ifc ufc) icw
                (iwc_ok c ok p pok) (iwc_empty_least c p) (wo_blockSize o) ri ri_pos fg (wo_snappy o) kvs data fname verify
                Hs' Hw Hlen Hsz1) as (bl & seps & hs & W & Ek & Hidx & Hisz & Hf & Hfilt).
    cbv zeta in W, Hidx, Hf, Hfilt.
    set (f := mkTF num (key_first kvs) (key_last kvs) data).
    assert (Erd : tf_reader c tp crc decompress fname ufc verify f =
                  open_table tp crc decompress (ifc ufc) icw data fname verify) by reflexivity.
    destruct (exact_check icw _ ri bl seps hs (iwc_ok c ok p pok) ri_pos W Hidx Hisz Hf) as [Hp Hwfb].
    assert (Hchk : table_check icr (tf_reader c tp crc decompress fname ufc verify f) ri = Some kvs).
    { unfold table_check. rewrite Erd, Hp. rewrite (table_wfb_cmp_ext icr icw) by reflexivity. rewrite Hwfb. unfold tkvs in Ek. rewrite Ek. reflexivity. }
    split; [|split; [unfold tf_pairs, ReadPath.ic; fold f; rewrite Hchk; reflexivity|exact Hchk]].
    unfold tfile_okb, ReadPath.ic. fold f. rewrite Erd, Hp. rewrite (table_wfb_cmp_ext icr icw) by reflexivity. rewrite Hwfb. cbn [andb].
    unfold tkvs in Ek. rewrite Ek.
    assert (K1 : forallb (fun kv => key_okb p (fst kv)) kvs = true) by (apply forallb_forall; rewrite Forall_forall in Hk; exact Hk).
    rewrite K1. cbn [andb].
    (* the separators are decodable: each is not below the last key of its (non-empty) block *)
    assert (K2 : forallb ik_validb seps = true).
    { apply forallb_forall. intros s Hin. destruct (In_nth _ _ [] Hin) as (j & Hj & <-).
      pose proof (twf_len_s _ _ _ _ _ W) as Q. pose proof (eq_ind _ (fun n => (j < n)%nat) Hj _ Q) as Hj'. clear Hj. rename Hj' into Hj. cbv beta in Hj.
      destruct (twf_blocks_ne _ _ _ _ _ W) as [Hbn|Hbn].
      - specialize (Hbn j Hj). destruct (nth j bl []) as [|x r] eqn:Eb; [congruence|].
        assert (Hx : In x kvs).
        { rewrite <- Ek. apply in_concat. exists (nth j bl []). split; [apply nth_In; exact Hj|rewrite Eb; left; reflexivity]. }
        rewrite Forall_forall in Hk. destruct (key_okb_dec p _ (Hk x Hx)) as (kx & Dx & _).
        apply (ge_decodable c (fst x) _ kx Dx).
        apply (twf_sep_ge _ _ _ _ _ W j x Hj). rewrite Eb. left. reflexivity.
      - exfalso. rewrite Hbn in Ek. cbn in Ek. congruence. }
    rewrite K2. cbn [andb].
    assert (K3 : filter_okb c (open_table tp crc decompress (ifc ufc) icw data fname verify) bl seps hs = true).
    { destruct Hfl as [Hnone|Hfp].
      - unfold filter_okb. rewrite (Hfilt (Hfg0 Hnone)). reflexivity.
      - unfold filter_part in Hfp. fold f in Hfp. rewrite Erd, Hp in Hfp. exact Hfp. }
    rewrite K3. cbn [andb].
    destruct kvs as [|kv r]; [congruence|]. cbn [key_first key_last f tf_imin tf_imax].
    apply andb_true_intro. split; apply beq_eq; reflexivity.
  Qed.
End WriterOutput.
