(* Lsm/ReadPathTable.v — tOps.find on the BYTES of a table file, as version.get uses it.
   Uses the table theory of property C13 (Codec/TableProofs.v: table_wf, tfind_spec, tfind_first_ge, routes_to,
   the separator lemmas; Codec/TableCheckProofs.v: table_wfb_sound) with the encoded internal-key order as the
   comparer.  C13's filter_independent is about exact matches of the WHOLE key, while the DB asks the filter
   about the USER key of a probe that is never stored; hence [tfind_filtered_route] (a rejected lookup names the
   block it was routed to) and the argument that a rejected block cannot hide the answer (ReadPath.filter_okb). *)
From GL Require Import Base.BytesProofs Base.OrderProofs Base.CursorProofs Codec.BlockProofs Codec.TableProofs
  Codec.TableCheck
  Codec.TableCheckProofs Lsm.Lsm Lsm.LsmProofs Lsm.ReadPath Lsm.ReadPathKey.
From Coq Require Import Arith Lia.
Open Scope N_scope.

Section Route.
  Variable c : comparer.
  Hypothesis c_ok : comparer_ok c.
  Variable rd : treader.
  Variable blocks : list (list (bytes * bytes)).
  Variable seps : list bytes.
  Variable hs : list bhandle.
  Hypothesis wf : table_wf c rd blocks seps hs.

  Lemma tfind_filtered_route key :
    tfind c rd key true = tfind c rd key false \/
    (tfind c rd key true = FNotFound /\
     exists j contains, routes_to c blocks seps key j /\ tr_filter rd = Some contains /\
                        contains (bh_off (nth j hs bh0)) key = false).
  Proof.
    unfold tfind. destruct (twf_index _ _ _ _ _ wf) as (ib & Eib & (ioff & iris & ilay)). rewrite Eib.
    cbn [new_block_iter].
    destruct (seek_step c c_ok (ientries seps hs) ib ioff iris ilay (ient_sorted c c_ok rd blocks seps hs wf)
                (bi_unsliced ib) CSOI key (rep_unsliced _ _ _ _))
      as (ok & index1 & E1 & R1 & Eok1). rewrite E1.
    destruct (c_seek_cases c key (ientries seps hs)) as [(j & Ej)|Ee].
    - rewrite Ej in R1, Eok1. subst ok. cbn [negb].
      pose proof (index_seek_at c rd blocks seps hs wf key j Ej) as Hroute. pose proof Hroute as (Hj & _).
      pose proof R1 as (_ & _ & _ & _ & Ev & _). rewrite Ev, (ient_val c rd blocks seps hs wf j Hj).
      destruct (twf_handles _ _ _ _ _ wf j Hj) as [Ho Hl]. rewrite (decode_encode_bh _ Ho Hl).
      destruct (tr_filter rd) as [contains|] eqn:Et; [|left; reflexivity].
      cbn [andb]. destruct (contains (bh_off (nth j hs bh0)) key) eqn:Ec; cbn [negb]; [left; reflexivity|].
      right. split; [reflexivity|]. exists j, contains. repeat split; try assumption; apply Hroute.
    - rewrite Ee in Eok1. subst ok. left. reflexivity.
  Qed.

  (* the unfiltered find as a plain scan *)
  Lemma first_ge_scan key (l : list (bytes * bytes)) : forall i,
    match first_ge c key l i with
    | Some j => exists n, j = (i + n)%nat /\ nth_error l n = find (fun kv => match cmp c (fst kv) key with Lt => false | _ => true end) l
                          /\ nth_error l n <> None
    | None => find (fun kv => match cmp c (fst kv) key with Lt => false | _ => true end) l = None
    end.
  Proof.
    induction l as [|[k v] l IH]; intros i; cbn [first_ge find fst]; [reflexivity|].
    destruct (cmp c k key) eqn:E.
    - exists 0%nat. split; [lia|]. split; [reflexivity|discriminate].
    - specialize (IH (S i)). destruct (first_ge c key l (S i)) as [j|].
      + destruct IH as (n & -> & Hn & Hne). exists (S n). split; [lia|]. split; assumption.
      + exact IH.
    - exists 0%nat. split; [lia|]. split; [reflexivity|discriminate].
  Qed.

  Lemma tfind_scan key :
    tfind c rd key false =
    match find (fun kv => match cmp c (fst kv) key with Lt => false | _ => true end) (tkvs blocks) with
    | Some (k, v) => FFound k v
    | None => FNotFound
    end.
  Proof.
    rewrite (tfind_first_ge c c_ok rd blocks seps hs wf key).
    pose proof (first_ge_scan key (tkvs blocks) 0) as H.
    destruct (first_ge c key (tkvs blocks) 0) as [j|].
    - destruct H as (n & -> & Hn & Hne). cbn [Nat.add]. rewrite Hn in *.
      destruct (find _ (tkvs blocks)) as [[k v]|]; [reflexivity|congruence].
    - rewrite H. reflexivity.
  Qed.
End Route.

Lemma find_ge_in (c : comparer) q l e : find_ge c q l = Some e -> In e l.
Proof.
  induction l as [|y l IH]; cbn [find_ge]; [discriminate|].
  destruct (icmp c (e_ikey y) q); intros H; try (injection H as <-; left; reflexivity). right. apply IH. exact H.
Qed.

Section TableRead.
  Variable c : comparer.
  Hypothesis ok : comparer_ok c.
  Variable p : kparams.
  Hypothesis pok : kparams_ok p.
  Hypothesis seek_val : keyTypeSeek p <= keyTypeVal p.
  Variable tp : tparams.
  Variable crc : bytes -> N.
  Variable decompress : bytes -> option bytes.
  Variable fname : option bytes.
  Variable ufc : bytes -> N -> bytes -> bool.
  Variable verify : bool.
  Variable ri : N.

  Local Notation ic := (ibc c).
  Local Notation icok := (ibc_ok c ok).
  Local Notation reader := (tf_reader c tp crc decompress fname ufc verify).
  Local Notation okb := (tfile_okb c p tp crc decompress fname ufc verify ri).
  Local Notation pairs := (tf_pairs c tp crc decompress fname ufc verify ri).
  Local Notation nb := (not_below c).

  (* order of the user keys under the encoded order *)
  Lemma ic_ge_uk A B a b : ik_dec A = Some a -> ik_dec B = Some b -> cmp ic A B <> Lt -> cmp c (uk a) (uk b) <> Lt.
  Proof.
    intros Ha Hb. rewrite (ibc_dec c A B a b Ha Hb). unfold icmp. destruct (cmp c (uk a) (uk b)); congruence.
  Qed.
  Lemma ic_lt_uk A B a b : ik_dec A = Some a -> ik_dec B = Some b -> cmp ic A B = Lt -> cmp c (uk a) (uk b) <> Gt.
  Proof.
    intros Ha Hb. rewrite (ibc_dec c A B a b Ha Hb). unfold icmp. destruct (cmp c (uk a) (uk b)); congruence.
  Qed.

  (* the reader's filter, when it has one, is the user-key test on some filter block *)
  Lemma reader_filter_shape f contains : tr_filter (reader f) = Some contains -> exists data, contains = ifc ufc data.
  Proof.
    unfold tf_reader, open_table, tr_broken.
    repeat match goal with
           | |- context [if ?b then _ else _] => destruct b; cbn [tr_filter]; try discriminate
           | |- context [match decode_bh ?x with _ => _ end] => destruct (decode_bh x); cbn [tr_filter]; try discriminate
           | |- context [match read_block_at ?a ?b ?cc ?d ?e ?g with _ => _ end] =>
               destruct (read_block_at a b cc d e g); cbn [tr_filter]; try discriminate
           end.
    destruct (match fname with Some name => _ | None => None end) as [fh|]; [|discriminate].
    unfold read_filter_block. destruct (read_raw_block tp crc decompress (tf_data f) fh true) as [data| |]; try discriminate.
    destruct (lenN data <? 5); [discriminate|].
    destruct (lenN data - 5 <? _); [discriminate|].
    intros H. injection H as <-. exists data. reflexivity.
  Qed.

  Lemma ifc_same_uk data off A B a b : ik_dec A = Some a -> ik_dec B = Some b -> uk a = uk b ->
    ifc ufc data off A = ifc ufc data off B.
  Proof.
    intros Ha Hb E. unfold ifc. rewrite (ik_dec_ukey A a Ha), (ik_dec_ukey B b Hb), E. reflexivity.
  Qed.

  (* what an accepted file gives *)
  Record tf_facts (f : tfile) (bl : list (list (bytes * bytes))) (se : list bytes) (hs : list bhandle) : Prop := {
    tff_wf : table_wf ic (reader f) bl se hs;
    tff_pairs : pairs f = tkvs bl;
    tff_keys : keys_ok p (tkvs bl);
    tff_seps : forall j, (j < length bl)%nat -> exists s, ik_dec (nth j se []) = Some s;
    tff_filter : filter_okb c (reader f) bl se hs = true;
    tff_bounds : exists kv r, tkvs bl = kv :: r /\ tf_imin f = fst kv /\ tf_imax f = fst (last r kv)
  }.

  Lemma okb_facts f : okb f = true -> exists bl se hs, tf_facts f bl se hs.
  Proof.
    unfold tfile_okb. destruct (table_parse (reader f)) as [[[bl se] hs]|] eqn:P; [|discriminate].
    intros H. apply andb_prop in H as [H Hb]. apply andb_prop in H as [H Hfil].
    apply andb_prop in H as [H Hseps]. apply andb_prop in H as [Hwf Hkeys].
    pose proof (table_wfb_sound ic (reader f) ri bl se hs Hwf) as W.
    exists bl, se, hs. constructor.
    - exact W.
    - unfold tf_pairs, table_check. rewrite P, Hwf. reflexivity.
    - unfold keys_ok. apply Forall_forall. rewrite forallb_forall in Hkeys. exact Hkeys.
    - intros j Hj. rewrite forallb_forall in Hseps.
      assert (Hin : In (nth j se []) se) by (apply nth_In; rewrite (twf_len_s _ _ _ _ _ W); exact Hj).
      specialize (Hseps _ Hin). unfold ik_validb in Hseps. destruct (ik_dec (nth j se [])) as [s|]; [eauto|discriminate].
    - exact Hfil.
    - unfold tkvs. destruct (concat bl) as [|kv r]; [discriminate|]. exists kv, r.
      apply andb_prop in Hb as [H1 H2]. apply beq_eq in H1, H2. auto.
  Qed.

  Section OneTable.
    Variables (f : tfile) (bl : list (list (bytes * bytes))) (se : list bytes) (hs : list bhandle).
    Hypothesis F : tf_facts f bl se hs.
    Variables (k : bytes) (s : N).
    Hypothesis Wk : wf_bytes k.
    Hypothesis Hs : s <= keyMaxSeq p.

    Local Notation q := (probe p k s).
    Local Notation key := (encode_ikey (probe p k s)).
    Local Notation es := (map entry_of (pairs f)).
    Local Notation W := (tff_wf f bl se hs F).
    Local Notation Dq := (probe_dec p pok k s Wk Hs).

    Lemma pair_dec x : In x (tkvs bl) -> exists a, ik_dec (fst x) = Some a /\ (ik_kind a = keyTypeDel p \/ ik_kind a = keyTypeVal p).
    Proof.
      intros Hin. pose proof (tff_keys f bl se hs F) as Hk. unfold keys_ok in Hk. rewrite Forall_forall in Hk.
      apply key_okb_dec. apply Hk. exact Hin.
    Qed.

    (* a block rejected by the filter does not hold, and does not precede, the answer for k *)
    Lemma rejected_no_hit j contains fk fv a :
      routes_to ic bl se key j -> tr_filter (reader f) = Some contains ->
      contains (bh_off (nth j hs bh0)) key = false ->
      first_ge_at ic key (tkvs bl) (fk, fv) -> ik_dec fk = Some a -> uk a = k -> False.
    Proof.
      intros Hroute Et Ec Hfg Da Ua.
      destruct (reader_filter_shape f contains Et) as (data & ->).
      pose proof Hroute as (Hj & Hge & Hlt).
      destruct Hfg as (pre & post & Ekv & Hpre & Hkv). cbn [fst] in Hkv.
      assert (Hin : In (fk, fv) (tkvs bl)) by (rewrite Ekv; apply in_or_app; right; left; reflexivity).
      apply in_concat_nth in Hin as (j' & Hj' & Hinb).
      pose proof (tff_filter f bl se hs F) as Hfil. unfold filter_okb in Hfil. rewrite Et in Hfil.
      rewrite forallb_forall in Hfil.
      assert (Hfj : forall i, (i < length bl)%nat -> In i (seq 0 (length bl))) by (intros i Hi; apply in_seq; lia).
      destruct (Nat.lt_trichotomy j' j) as [L|[L|L]].
      - (* an earlier block: its keys are below the probe *)
        pose proof (before_block_lt ic icok (reader f) bl se hs W j key (fk, fv) j' L Hj Hinb (Hlt ltac:(lia))) as H.
        cbn [fst] in H. congruence.
      - (* the rejected block itself: the filter holds its user keys *)
        subst j'. specialize (Hfil j (Hfj j Hj)). apply andb_prop in Hfil as [Hall _].
        rewrite forallb_forall in Hall. specialize (Hall (fk, fv) Hinb). cbn [fst] in Hall.
        unfold bh_zero in Hall. unfold bh0 in Ec.
        rewrite (ifc_same_uk data _ fk key a q Da Dq Ua) in Hall. congruence.
      - (* a later block: then the separator of block j has the user key k and was tested *)
        assert (HSj : (S j < length bl)%nat) by lia.
        pose proof (blk_ne ic (reader f) bl se hs W (S j) ltac:(lia) HSj) as Hne.
        destruct (nth (S j) bl []) as [|x r] eqn:Eb; [congruence|].
        assert (Hx : In x (nth (S j) bl [])) by (rewrite Eb; left; reflexivity).
        assert (HxT : In x (tkvs bl)) by (eapply in_nth_concat; eauto).
        destruct (pair_dec x HxT) as (xa & Dx & _).
        destruct (tff_seps f bl se hs F j Hj) as (sa & Ds).
        (* sep j < x *)
        pose proof (twf_sep_lt _ _ _ _ _ W j x HSj Hx) as Hsx.
        (* x <= fk *)
        assert (Hxf : x = (fk, fv) \/ cmp ic (fst x) fk = Lt).
        { destruct (Nat.eq_dec j' (S j)) as [->|Hne'].
          - rewrite Eb in Hinb. destruct Hinb as [<-|Hr]; [left; reflexivity|]. right.
            pose proof (sorted_block ic icok (reader f) bl se hs W (S j) HSj) as SB. rewrite Eb in SB.
            destruct x as [kx vx]. cbn [sorted] in SB. apply In_nth_error in Hr as (n & Hn).
            cbn [fst]. eapply (sorted_from_nth ic icok); eauto.
          - right.
            pose proof (twf_sep_lt _ _ _ _ _ W (j' - 1)%nat (fk, fv) ltac:(lia)) as H1.
            replace (S (j' - 1)) with j' in H1 by lia. specialize (H1 Hinb). cbn [fst] in H1.
            apply (before_block_lt ic icok (reader f) bl se hs W j' fk x (S j) ltac:(lia) Hj' Hx H1). }
        (* user keys: k <= uk sep <= uk x <= uk fk = k *)
        pose proof (ic_ge_uk _ _ sa q Ds Dq Hge) as U1. cbn [uk probe] in U1.
        pose proof (ic_lt_uk _ _ sa xa Ds Dx Hsx) as U2.
        assert (U3 : cmp c (uk xa) k <> Gt).
        { destruct Hxf as [->|Hlt'].
          - cbn [fst] in Dx. rewrite Da in Dx. injection Dx as <-. rewrite Ua, (cmp_refl c ok). discriminate.
          - pose proof (ic_lt_uk _ _ xa a Dx Da Hlt') as H. rewrite Ua in H. exact H. }
        assert (Esk : uk sa = k).
        { apply (OrderProofs.le_antisym c ok).
          - apply (OrderProofs.le_trans c ok _ (uk xa)); assumption.
          - apply (OrderProofs.not_lt_le c ok). exact U1. }
        assert (Exk : uk xa = k).
        { apply (OrderProofs.le_antisym c ok); [exact U3|]. rewrite <- Esk. exact U2. }
        specialize (Hfil j (Hfj j Hj)). apply andb_prop in Hfil as [_ Hsep]. rewrite Eb in Hsep.
        unfold same_ukeyb in Hsep. rewrite Ds, Dx, Esk, Exk, (cmp_refl c ok) in Hsep.
        unfold bh_zero in Hsep. unfold bh0 in Ec.
        rewrite (ifc_same_uk data _ (nth j se []) key sa q Ds Dq Esk) in Hsep. congruence.
    Qed.

    (* Reader.Find(probe, filtered = true) against the L1 model's find_ge on the table's entries *)
    Lemma tfind_bytes :
      match find_ge c q es with
      | Some e =>
          match cmp c (e_uk e) k with
          | Eq => exists fk fv, tfind ic (reader f) key true = FFound fk fv /\ In (fk, fv) (tkvs bl) /\ entry_of (fk, fv) = e
          | _ => tfind ic (reader f) key true = FNotFound \/
                 exists fk fv, tfind ic (reader f) key true = FFound fk fv /\ In (fk, fv) (tkvs bl) /\ entry_of (fk, fv) = e
          end
      | None => tfind ic (reader f) key true = FNotFound
      end.
    Proof.
      pose proof (find_not_below c p key q (tkvs bl) (tff_keys f bl se hs F) Dq) as FN.
      rewrite (tff_pairs f bl se hs F). rewrite <- FN.
      pose proof (tfind_scan ic icok (reader f) bl se hs W key) as U. fold (nb key) in U.
      pose proof (tfind_spec ic icok (reader f) bl se hs W key) as SP.
      destruct (tfind_filtered_route ic icok (reader f) bl se hs W key) as [E|(E & j & contains & Hroute & Et & Ec)].
      - rewrite E, U. destruct (find (nb key) (tkvs bl)) as [[fk fv]|] eqn:Ef; cbn [option_map]; [|reflexivity].
        apply find_some in Ef as [Hin _].
        destruct (cmp c (e_uk (entry_of (fk, fv))) k); [|right|right]; exists fk, fv; auto.
      - rewrite E. rewrite U in SP.
        destruct (find (nb key) (tkvs bl)) as [[fk fv]|] eqn:Ef; cbn [option_map]; [|reflexivity].
        cbn [find_spec] in SP. apply find_some in Ef as [Hin _].
        destruct (pair_dec (fk, fv) Hin) as (a & Da & _). cbn [fst] in Da.
        rewrite (entry_of_dec (fk, fv) a Da). cbn [e_uk].
        destruct (cmp c (uk a) k) eqn:Eu; [|left; reflexivity|left; reflexivity].
        exfalso. apply (cmp_eq c ok) in Eu.
        exact (rejected_no_hit j contains fk fv a Hroute Et Ec SP Da Eu).
    Qed.

    Definition zproj (e : entry) : N * N * bytes := (e_seq e, e_kind e, e_val e).

    Local Notation git := (get_in_table c p tp crc decompress fname ufc verify).

    Lemma found_step fk fv lvl0 z : In (fk, fv) (tkvs bl) ->
      tfind ic (reader f) key true = FFound fk fv ->
      git lvl0 f key k z =
      let e := entry_of (fk, fv) in
      match cmp c (e_uk e) k with
      | Eq => if lvl0 then (if zseq_of z <=? e_seq e then FCont (Some (zproj e)) else FCont z)
              else FStop (kt_result p (e_kind e) (e_val e))
      | _ => FCont z
      end.
    Proof.
      intros Hin E. unfold get_in_table, ReadPath.ic. rewrite E.
      destruct (pair_dec (fk, fv) Hin) as (a & Da & Ka). cbn [fst] in Da.
      rewrite (parse_ok p fk a Da (kind_le_val p pok a Ka seek_val)).
      rewrite (entry_of_dec (fk, fv) a Da). cbn zeta. cbn [e_uk e_seq e_kind e_val snd].
      rewrite (cmp_opp c ok (uk a) k). destruct (cmp c (uk a) k); reflexivity.
    Qed.

    Lemma kt_result_res e : In e es -> kt_result p (e_kind e) (e_val e) = BRes (res_of p e).
    Proof.
      intros Hin. rewrite (tff_pairs f bl se hs F) in Hin. apply in_map_iff in Hin as (x & <- & Hx).
      destruct (pair_dec x Hx) as (a & Da & Ka). rewrite (entry_of_dec x a Da). unfold kt_result, res_of. cbn [e_kind e_val].
      destruct pok as (_ & _ & Hdv & _).
      destruct Ka as [-> | ->].
      - rewrite N.eqb_refl. replace (keyTypeDel p =? keyTypeVal p) with false by (symmetry; apply N.eqb_neq; exact Hdv). reflexivity.
      - rewrite N.eqb_refl. replace (keyTypeVal p =? keyTypeDel p) with false by (symmetry; apply N.eqb_neq; congruence). reflexivity.
    Qed.

    (* the closure on this table, in terms of the L1 model's find_ge on its entries *)
    Lemma git_spec lvl0 z :
      git lvl0 f key k z =
      match find_ge c q es with
      | Some e =>
          match cmp c (e_uk e) k with
          | Eq => if lvl0 then (if zseq_of z <=? e_seq e then FCont (Some (zproj e)) else FCont z)
                  else FStop (kt_result p (e_kind e) (e_val e))
          | _ => FCont z
          end
      | None => FCont z
      end.
    Proof.
      pose proof tfind_bytes as T.
      assert (NF : tfind ic (reader f) key true = FNotFound -> git lvl0 f key k z = FCont z)
        by (intros E; unfold get_in_table, ReadPath.ic; rewrite E; reflexivity).
      destruct (find_ge c q es) as [e|]; [|exact (NF T)].
      destruct (cmp c (e_uk e) k) eqn:Eu.
      - destruct T as (fk & fv & E & Hin & <-). rewrite (found_step fk fv lvl0 z Hin E). cbn zeta. rewrite Eu. reflexivity.
      - destruct T as [E|(fk & fv & E & Hin & <-)]; [exact (NF E)|].
        rewrite (found_step fk fv lvl0 z Hin E). cbn zeta. rewrite Eu. reflexivity.
      - destruct T as [E|(fk & fv & E & Hin & <-)]; [exact (NF E)|].
        rewrite (found_step fk fv lvl0 z Hin E). cbn zeta. rewrite Eu. reflexivity.
    Qed.

    (* a deeper level: the table decides, or the walk continues *)
    Theorem get_in_table_deep z :
      git false f key k z =
      match comp_get c p es k s with
      | GMiss => FCont z
      | r => FStop (BRes r)
      end.
    Proof.
      rewrite (git_spec false z). unfold comp_get. destruct (find_ge c q es) as [e|] eqn:Eg; [|reflexivity].
      destruct (cmp c (e_uk e) k); try reflexivity.
      rewrite (kt_result_res e (find_ge_in c q es e Eg)). pose proof (res_nonmiss p e). destruct (res_of p e); congruence.
    Qed.

    (* level 0: the hit with the largest sequence number so far *)
    Theorem get_in_table_l0 ze :
      git true f key k (option_map zproj ze) =
      FCont (option_map zproj
        (match find_ge c q es with
         | Some e => match cmp c (e_uk e) k with
                     | Eq => match ze with
                             | Some x => if e_seq x <=? e_seq e then Some e else ze
                             | None => Some e
                             end
                     | _ => ze
                     end
         | None => ze
         end)).
    Proof.
      rewrite (git_spec true). destruct (find_ge c q es) as [e|]; [|reflexivity].
      destruct (cmp c (e_uk e) k); try reflexivity.
      destruct ze as [x|]; cbn [option_map zseq_of zproj].
      - destruct (e_seq x <=? e_seq e); reflexivity.
      - rewrite (proj2 (N.leb_le 0 (e_seq e)) (N.le_0_l _)). reflexivity.
    Qed.
  End OneTable.
End TableRead.
