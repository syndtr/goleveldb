(* Lsm/WfProofs.v — the boolean well-formedness check evaluated on dumped versions (Compact.wf_versionb)
   implies the propositional invariant under which the read path is correct (LsmProofs.wf_state).  The part about
   tables and sorted levels holds for every comparer satisfying the PREORDER contract (Base/OrderPre.v). *)
From GL Require Import Base.BytesProofs Base.OrderProofs Base.OrderPre Codec.IKeyPreProofs Lsm.Compact Lsm.LsmProofs.

Section Pre.
  Variable c : comparer.
  Hypothesis ok : comparer_pre_ok c.
  Variable p : kparams.

  Notation ssorted := (ssorted c).
  Notation kinds_ok := (kinds_ok p).

  Lemma psortedb_ssorted l : sortedb c l = true -> ssorted l.
  Proof.
    induction l as [|a l IH]; intros H; [exact I|].
    destruct l as [|b l']; [split; [constructor|exact I]|].
    cbn [sortedb] in H. destruct (ecmp c a b) eqn:E; try discriminate.
    specialize (IH H). split; [|exact IH]. destruct IH as [Hall _].
    constructor; [exact E|]. rewrite Forall_forall in *. intros x Hx.
    eapply (picmp_trans c ok); [exact E|apply Hall; exact Hx].
  Qed.

  Lemma kindsb_ok l : kindsb p l = true -> kinds_ok l.
  Proof.
    unfold kindsb, LsmProofs.kinds_ok. rewrite forallb_forall, Forall_forall.
    intros H x Hx. apply N.leb_le. apply H. exact Hx.
  Qed.

  Lemma ptable_okb_ok t : table_okb c p t = true -> table_ok c p t /\ t_entries t <> [].
  Proof.
    unfold table_okb, table_ok. intros H. apply andb_prop in H as [H H3]. apply andb_prop in H as [H1 H2].
    split; [split; [apply psortedb_ssorted; exact H2|apply kindsb_ok; exact H3]|].
    destruct (t_entries t); [discriminate|discriminate].
  Qed.

  Lemma ptables_okb_ok ts : forallb (table_okb c p) ts = true -> tables_ok c p ts.
  Proof.
    unfold tables_ok. rewrite forallb_forall, Forall_forall. intros H t Ht. apply ptable_okb_ok. apply H. exact Ht.
  Qed.

  Lemma pin_table_bounds t x : ssorted (t_entries t) -> In x (t_entries t) ->
    exists f l, t_first t = Some f /\ t_last t = Some l /\
      cmp c (e_uk f) (e_uk x) <> Gt /\ cmp c (e_uk x) (e_uk l) <> Gt.
  Proof.
    intros Hs Hx. unfold t_first, t_last.
    destruct (hd_error (t_entries t)) as [f|] eqn:F.
    2:{ destruct (t_entries t); [destruct Hx|discriminate]. }
    destruct (last (map Some (t_entries t)) None) as [l|] eqn:L.
    2:{ apply last_none_nil in L. rewrite L in Hx. destruct Hx. }
    exists f, l. split; [reflexivity|]. split; [reflexivity|]. split.
    - apply (pssorted_hd_le c ok _ f x Hs F Hx).
    - destruct (ssorted_last_ge c _ x l Hs L Hx) as [->|H].
      + rewrite (pcmp_refl c ok). discriminate.
      + apply (after_uk_le c). exact H.
  Qed.

  Lemma plevel_disjoint_sorted ts : tables_ok c p ts -> (forall t, In t ts -> t_entries t <> []) ->
    level_disjoint c ts = true -> level_sorted c ts.
  Proof.
    induction ts as [|a ts IH]; intros Hok Hne H; [exact I|].
    destruct ts as [|b ts']; [split; [constructor|exact I]|].
    cbn [level_disjoint] in H. apply andb_prop in H as [H1 H2].
    assert (Hok' : tables_ok c p (b :: ts')) by (inversion Hok; assumption).
    assert (IH' := IH Hok' (fun t Ht => Hne t (or_intror Ht)) H2).
    split; [|exact IH'].
    destruct (t_last a) as [la|] eqn:LA; [|discriminate].
    destruct (t_first b) as [fb|] eqn:FB; [|discriminate].
    apply (ltb_lt c) in H1.
    assert (Ha : table_ok c p a) by (inversion Hok; assumption).
    assert (Hb : table_ok c p b) by (inversion Hok'; assumption).
    assert (AB : forall x y, In x (t_entries a) -> In y (t_entries b) -> cmp c (e_uk x) (e_uk y) = Lt).
    { intros x y Hx Hy.
      destruct (pin_table_bounds a x (proj1 Ha) Hx) as [f [l [_ [L [_ Hxl]]]]].
      destruct (pin_table_bounds b y (proj1 Hb) Hy) as [f' [l' [F' [_ [Hfy _]]]]].
      rewrite LA in L. injection L as <-. rewrite FB in F'. injection F' as <-.
      eapply (plt_le_trans c ok); [|exact Hfy]. eapply (ple_lt_trans c ok); [exact Hxl|exact H1]. }
    constructor; [exact AB|].
    destruct IH' as [Hall _]. rewrite Forall_forall in *. intros t' Ht' x y Hx Hy.
    destruct (t_entries b) as [|y2 yb] eqn:EB; [exfalso; apply (Hne b); [right; left; reflexivity|exact EB]|].
    eapply (pre_trans c ok); [apply (AB x y2 Hx); left; reflexivity|].
    apply (Hall t' Ht' y2 y); [left; reflexivity|exact Hy].
  Qed.

  Lemma forall_concat {A} (P : A -> bool) (ls : list (list A)) :
    forallb P (concat ls) = true -> forall l, In l ls -> forallb P l = true.
  Proof.
    intros H l Hl. rewrite forallb_forall in *. intros x Hx. apply H. apply in_concat. exists l. split; assumption.
  Qed.

  Lemma version_levels_ok lvls : forallb (table_okb c p) (concat lvls) = true ->
    (forall l, In l lvls -> tables_ok c p l) /\ (forall l, In l lvls -> level_disjoint c l = true -> level_ok c p l).
  Proof.
    intros H.
    assert (T : forall l, In l lvls -> tables_ok c p l /\ (forall t, In t l -> t_entries t <> [])).
    { intros l Hl. pose proof (forall_concat _ _ H l Hl) as Hf. split; [apply ptables_okb_ok; exact Hf|].
      intros t Ht. rewrite forallb_forall in Hf. apply ptable_okb_ok. apply Hf. exact Ht. }
    split; [intros l Hl; apply T; exact Hl|]. intros l Hl Hd. destruct (T l Hl) as [T1 T2].
    split; [exact T1|apply plevel_disjoint_sorted; assumption].
  Qed.
End Pre.

Section Proofs.
  Variable c : comparer.
  Hypothesis ok : comparer_ok c.
  Variable p : kparams.
  Hypothesis pok : kparams_ok p.

  Notation ssorted := (ssorted c).

  Lemma sortedb_ssorted l : sortedb c l = true -> ssorted l.
  Proof. apply (psortedb_ssorted c (comparer_ok_pre c ok)). Qed.

  Lemma newer_than_P hi lo : newer_than c hi lo = true -> newer_thanP hi lo.
  Proof.
    unfold newer_than, newer_thanP. rewrite forallb_forall. intros H a b Ha Hb Hu.
    specialize (H a Ha). rewrite forallb_forall in H. specialize (H b Hb).
    rewrite Hu, (cmp_refl c ok) in H. apply N.ltb_lt in H. exact H.
  Qed.

  Lemma levels_newer_chain lvls : levels_newer c lvls = true ->
    chain_newer (map LsmProofs.level_entries lvls).
  Proof.
    induction lvls as [|l rest IH]; intros H; [exact I|].
    cbn [levels_newer] in H. apply andb_prop in H as [H1 H2]. cbn [map chain_newer]. split; [|apply IH; exact H2].
    rewrite forallb_forall in H1. rewrite Forall_forall. intros y Hy.
    apply in_map_iff in Hy as [d [<- Hd]]. apply newer_than_P. apply H1. exact Hd.
  Qed.

  Lemma uniqb_nodup l : uniqb l = true -> NoDup (map keyseq l).
  Proof.
    induction l as [|a l IH]; intros H; [constructor|].
    cbn [uniqb] in H. apply andb_prop in H as [H1 H2]. cbn [map]. constructor; [|apply IH; exact H2].
    intros Hin. apply in_map_iff in Hin as [b [Hk Hb]]. rewrite forallb_forall in H1. specialize (H1 b Hb).
    unfold keyseq in Hk. injection Hk as Hu Hs.
    assert (beq (e_uk a) (e_uk b) = true) by (apply beq_eq; congruence).
    assert ((e_seq a =? e_seq b) = true) by (apply N.eqb_eq; congruence).
    rewrite H, H0 in H1. discriminate.
  Qed.

  (* The boolean certificate evaluated on every dumped version implies the read-path invariant. *)
  Theorem wf_versionb_sound lvls : wf_versionb c p lvls = true ->
    wf_state c p {| st_mem := []; st_frozen := []; st_aux := []; st_levels := lvls |}.
  Proof.
    unfold wf_versionb. intros H. apply andb_prop in H as [H H3]. apply andb_prop in H as [H1 H2].
    destruct (version_levels_ok c (comparer_ok_pre c ok) p lvls H1) as [T D].
    apply (wf_state_version c p).
    - destruct lvls as [|l0 rest]; cbn [hd]; [constructor|]. apply T. left; reflexivity.
    - destruct lvls as [|l0 rest]; cbn [hd]; [constructor|].
      apply andb_prop in H2 as [H2 _]. apply andb_prop in H2 as [_ H2]. apply uniqb_nodup; exact H2.
    - destruct lvls as [|l0 rest]; cbn [tl]; [constructor|].
      apply andb_prop in H2 as [_ H2]. rewrite forallb_forall in H2. rewrite Forall_forall. intros l Hl.
      apply D; [right; exact Hl|apply H2; exact Hl].
    - apply levels_newer_chain. exact H3.
  Qed.
End Proofs.
