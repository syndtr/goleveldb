(* Lsm/CompactProofs.v — soundness of the compaction drop rule (tableCompactionBuilder.run), for every comparer
   satisfying the PREORDER contract (Base/OrderPre.v): the builder's "is this a new user key?" test is
   cmp c lastUkey ukey = Eq (Compact.last_seq), i.e. the USER COMPARER decides, not byte equality — replacing it by
   byte equality is unsound exactly for non-injective comparers (Props/C01.v C01_bytes_equal_drop_rule_refuted). *)
From GL Require Import Base.OrderPre Lsm.Compact Lsm.LsmProofs.
From Coq Require Import Lia.

Section Pre.
  Variable c : comparer.
  Hypothesis ok : comparer_pre_ok c.
  Variable p : kparams.
  Hypothesis pok : kparams_ok p.
  Variable minSeq : N.
  Variable base : bytes -> bool.
  Hypothesis minSeq_lt : minSeq < keyMaxSeq p.

  Notation drop := (drop_run c p minSeq base).
  Notation first_vis := (first_vis c).
  Notation ssorted := (ssorted c).
  Notation kinds_ok := (kinds_ok p).

  Definition res (z : option entry) : option bytes := api_of (group_res p z).

  Lemma drop_incl last l x : In x (drop last l) -> In x l.
  Proof.
    revert last; induction l as [|e l IH]; intros last; cbn [drop_run]; [auto|].
    destruct (last_seq c p last e <=? minSeq); [intros H; right; eapply IH; eauto|].
    destruct ((e_kind e =? keyTypeDel p) && (e_seq e <=? minSeq) && base (e_uk e)).
    - intros H; right; eapply IH; eauto.
    - intros [<-|H]; [left; reflexivity|right; eapply IH; eauto].
  Qed.

  Lemma drop_sorted last l : ssorted l -> ssorted (drop last l).
  Proof.
    revert last; induction l as [|e l IH]; intros last Hs; cbn [drop_run]; [exact I|].
    destruct Hs as [Hall Hs].
    destruct (last_seq c p last e <=? minSeq); [apply IH; exact Hs|].
    destruct ((e_kind e =? keyTypeDel p) && (e_seq e <=? minSeq) && base (e_uk e)); [apply IH; exact Hs|].
    split; [|apply IH; exact Hs].
    rewrite Forall_forall in *. intros x Hx. apply Hall. eapply drop_incl; eauto.
  Qed.

  Lemma drop_kinds last l : kinds_ok l -> kinds_ok (drop last l).
  Proof.
    unfold LsmProofs.kinds_ok. rewrite !Forall_forall. intros H x Hx. apply H. eapply drop_incl; eauto.
  Qed.

  Lemma kinds_pair l a b : kinds_ok l -> In a l -> In b l -> kinds_ok [a; b].
  Proof.
    intros H Ha Hb. unfold LsmProofs.kinds_ok. constructor; [eapply kinds_ok_in; eauto|].
    constructor; [eapply kinds_ok_in; eauto|constructor].
  Qed.

  Lemma first_vis_none_of k s l : (forall x, In x l -> vis c k s x = false) -> first_vis k s l = None.
  Proof.
    induction l as [|e l IH]; intros H; cbn [LsmProofs.first_vis]; [reflexivity|].
    rewrite (H e) by (left; reflexivity). apply IH. intros x Hx. apply H. right; exact Hx.
  Qed.

  (* once an entry of k's class with seq <= minSeq has been seen, every older entry of the class is dropped;
     [u] is the spelling of the last processed entry *)
  Lemma pdrop_dead k s : forall l u ls, cmp c u k = Eq -> ssorted l -> kinds_ok l ->
    (forall x, In x l -> cmp c k (e_uk x) <> Gt) ->
    (forall x, In x l -> cmp c (e_uk x) k = Eq -> e_seq x <= ls) ->
    ls <= minSeq ->
    first_vis k s (drop (Some (u, ls)) l) = None.
  Proof.
    induction l as [|e l IH]; intros u ls Hu Hs Hk Hge Hseq Hls; cbn [drop_run]; [reflexivity|].
    unfold last_seq. rewrite (pcmp_eq_l c ok u k (e_uk e) Hu). destruct (cmp c k (e_uk e)) eqn:E.
    - replace (ls <=? minSeq) with true by (symmetry; apply N.leb_le; exact Hls).
      assert (Ek : cmp c (e_uk e) k = Eq) by (apply (pcmp_eq_sym c ok); exact E).
      apply IH.
      + exact Ek.
      + apply Hs.
      + eapply kinds_ok_tl; eauto.
      + intros x Hx. apply Hge. right; exact Hx.
      + intros x Hx Ux. destruct Hs as [Hall _]. rewrite Forall_forall in Hall.
        apply (pafter_same_key c p pok e x); [|apply Hall; exact Hx|].
        * apply (kinds_pair (e :: l)); [assumption|left; reflexivity|right; exact Hx].
        * eapply (pcmp_eq_trans c ok); [exact Ek|]. apply (pcmp_eq_sym c ok). exact Ux.
      + assert (e_seq e <= ls) by (apply Hseq; [left; reflexivity|exact Ek]). lia.
    - (* a larger user key: nothing of k's class follows *)
      apply first_vis_none_of. intros x Hx.
      assert (Hx' : In x (e :: l)).
      { destruct (keyMaxSeq p <=? minSeq); [right; eapply drop_incl; eauto|].
        destruct ((e_kind e =? keyTypeDel p) && (e_seq e <=? minSeq) && base (e_uk e));
          [right; eapply drop_incl; eauto|].
        destruct Hx as [<-|Hx]; [left; reflexivity|right; eapply drop_incl; eauto]. }
      destruct (vis c k s x) eqn:V; [|reflexivity]. exfalso.
      apply (pvis_true c) in V as [Ux _].
      assert (Gk : cmp c (e_uk e) k = Gt) by (apply (pcmp_lt_gt c ok); exact E).
      destruct Hx' as [<-|Hx'].
      + congruence.
      + destruct Hs as [Hall _]. rewrite Forall_forall in Hall. specialize (Hall x Hx').
        apply (after_uk_le c) in Hall. rewrite (pcmp_eq_r c ok (e_uk x) k (e_uk e) Ux) in Hall.
        apply Hall. exact Gk.
    - exfalso. apply (Hge e); [left; reflexivity|exact E].
  Qed.

  Lemma last_seq_cases k s last e :
    (forall u ls, last = Some (u, ls) -> cmp c u k = Eq -> s < ls) -> minSeq <= s ->
    minSeq < last_seq c p last e \/ vis c k s e = false.
  Proof.
    intros Hlast Hms. unfold last_seq. destruct last as [[u ls]|]; [|left; exact minSeq_lt].
    destruct (cmp c u (e_uk e)) eqn:E; [|left; exact minSeq_lt|left; exact minSeq_lt].
    destruct (vis c k s e) eqn:V; [|right; reflexivity].
    apply (pvis_true c) in V as [Ue _]. left.
    assert (s < ls) by (apply (Hlast u ls eq_refl); eapply (pcmp_eq_trans c ok); eauto). lia.
  Qed.

  (* the main induction with the exact outcome: either the first visible entry is unchanged, or it was a tombstone
     at base level with seq <= minSeq and nothing of k's class is left *)
  Lemma pdrop_fresh_strong k s : minSeq <= s -> forall l last, ssorted l -> kinds_ok l ->
    (forall u ls, last = Some (u, ls) -> cmp c u k = Eq -> s < ls) ->
    first_vis k s (drop last l) = first_vis k s l \/
    (exists e, first_vis k s l = Some e /\ e_kind e = keyTypeDel p /\ base (e_uk e) = true /\
               e_seq e <= minSeq /\ first_vis k s (drop last l) = None).
  Proof.
    intros Hms. induction l as [|e l IH]; intros last Hs Hk Hlast; cbn [drop_run LsmProofs.first_vis]; [left; reflexivity|].
    pose proof (last_seq_cases k s last e Hlast Hms) as LS.
    assert (Hl : ssorted l) by apply Hs.
    assert (Hkl : kinds_ok l) by (eapply kinds_ok_tl; eauto).
    destruct (vis c k s e) eqn:V.
    - destruct LS as [LS|LS]; [|discriminate].
      replace (last_seq c p last e <=? minSeq) with false by (symmetry; apply N.leb_gt; exact LS).
      destruct ((e_kind e =? keyTypeDel p) && (e_seq e <=? minSeq) && base (e_uk e)) eqn:B.
      + right. exists e. apply (pvis_true c) in V as [Ue Vs].
        apply andb_prop in B as [B B3]. apply andb_prop in B as [B1 B2].
        apply N.eqb_eq in B1. apply N.leb_le in B2.
        split; [reflexivity|]. split; [exact B1|]. split; [exact B3|]. split; [exact B2|].
        apply (pdrop_dead k s l (e_uk e) (e_seq e)).
        * exact Ue.
        * exact Hl.
        * exact Hkl.
        * intros x Hx. destruct Hs as [Hall _]. rewrite Forall_forall in Hall.
          pose proof (after_uk_le c e x (Hall x Hx)) as H.
          rewrite (pcmp_eq_l c ok (e_uk e) k (e_uk x) Ue) in H. exact H.
        * intros x Hx Ux. destruct Hs as [Hall _]. rewrite Forall_forall in Hall.
          apply (pafter_same_key c p pok e x); [|apply Hall; exact Hx|].
          -- apply (kinds_pair (e :: l)); [assumption|left; reflexivity|right; exact Hx].
          -- eapply (pcmp_eq_trans c ok); [exact Ue|]. apply (pcmp_eq_sym c ok). exact Ux.
        * exact B2.
      + left. cbn [LsmProofs.first_vis]. rewrite V. reflexivity.
    - assert (IH' : first_vis k s (drop (Some (e_uk e, e_seq e)) l) = first_vis k s l \/
                    (exists e0, first_vis k s l = Some e0 /\ e_kind e0 = keyTypeDel p /\ base (e_uk e0) = true /\
                       e_seq e0 <= minSeq /\ first_vis k s (drop (Some (e_uk e, e_seq e)) l) = None)).
      { apply IH; [exact Hl|exact Hkl|]. intros u ls H Hu. injection H as <- <-.
        destruct (N.lt_ge_cases s (e_seq e)) as [H|H]; [exact H|].
        assert (vis c k s e = true) by (apply (pvis_true c); split; [exact Hu|lia]). congruence. }
      destruct (last_seq c p last e <=? minSeq); [exact IH'|].
      destruct ((e_kind e =? keyTypeDel p) && (e_seq e <=? minSeq) && base (e_uk e)); [exact IH'|].
      cbn [LsmProofs.first_vis]. rewrite V. exact IH'.
  Qed.

  Lemma pdrop_fresh k s : minSeq <= s -> forall l last, ssorted l -> kinds_ok l ->
    (forall u ls, last = Some (u, ls) -> cmp c u k = Eq -> s < ls) ->
    res (first_vis k s (drop last l)) = res (first_vis k s l).
  Proof.
    intros Hms l last Hs Hk Hlast.
    destruct (pdrop_fresh_strong k s Hms l last Hs Hk Hlast) as [->|[e [F [Kd [_ [_ D]]]]]]; [reflexivity|].
    rewrite D, F. unfold res. cbn [group_res]. unfold res_of. rewrite Kd, N.eqb_refl. reflexivity.
  Qed.

  (* Drop rule, per user key (class): for every sequence number s a reader may still hold (s >= minSeq), the kept
     entries answer a lookup of k at s exactly as the inputs did. *)
  Theorem drop_rule_answers k s l : ssorted l -> kinds_ok l -> minSeq <= s ->
    res (newest c k s (drop None l) None) = res (newest c k s l None).
  Proof.
    intros Hs Hk Hms.
    rewrite (pnewest_sorted c ok p pok k s _ None (drop_kinds None l Hk) (drop_sorted None l Hs)).
    rewrite (pnewest_sorted c ok p pok k s _ None Hk Hs).
    pose proof (pdrop_fresh k s Hms l None Hs Hk) as H.
    assert (H' : res (first_vis k s (drop None l)) = res (first_vis k s l)) by (apply H; discriminate).
    destruct (first_vis k s (drop None l)); destruct (first_vis k s l); exact H'.
  Qed.
End Pre.

Section Proofs.
  Variable c : comparer.
  Hypothesis ok : comparer_ok c.
  Variable p : kparams.
  Hypothesis pok : kparams_ok p.
  Variable minSeq : N.
  Variable base : bytes -> bool.
  Hypothesis minSeq_lt : minSeq < keyMaxSeq p.

  Notation drop := (drop_run c p minSeq base).
  Notation ssorted := (ssorted c).
  Notation kinds_ok := (kinds_ok p).
  Notation res := (res p).

  Theorem drop_rule_sound k s l : ssorted l -> kinds_ok l -> minSeq <= s ->
    res (newest c k s (drop None l) None) = res (newest c k s l None).
  Proof. apply (drop_rule_answers c (comparer_ok_pre c ok) p pok minSeq base minSeq_lt). Qed.

  (* nothing is invented: the output is a sub-list of the input *)
  Theorem drop_rule_subset l x : In x (drop None l) -> In x l.
  Proof. apply drop_incl. Qed.
End Proofs.
