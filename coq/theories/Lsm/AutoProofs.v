(* Lsm/AutoProofs.v — the background loop (model Lsm/RangeCompact.v: auto_loop = tCompaction repeating
   tableAutoCompaction while needCompaction, no command and no write arriving) reaches needCompaction = false.
   Measure: the same weighted entry count as for the range loop, wsum K: every table compaction — size-triggered,
   seek-triggered, trivial move or rewrite — takes a >= 1 entries out of its source level and adds at most a one level
   down.  What has to be shown is that the source level stays below a bound K: goleveldb has no deepest level,
   computeCompaction scores EVERY level (the deepest included) against GetCompactionTotalSize(level), so the bound
   exists only if the level limits eventually exceed what the DB can hold.  Hypothesis of the theorem: from level K on
   the limit exceeds Bz * (number of stored entries), where Bz bounds the size of a table per entry.  Without it the
   statement is false (Props/C06.v: C06_auto_compaction_quiesces_refuted).
   Also: the simple output oracle satisfies bld_ok; quiescence implies the write pause is lifted; a table alone in a
   level >= 1 where it scores >= 1 is moved one level down. *)
From GL Require Import Lsm.WfLsm Lsm.FinishProofs Lsm.ModelStep Lsm.C06Steps Lsm.RangeCompact Lsm.RangeStep
  Lsm.RangeProofs.
From Coq Require Import ZArith Lia.

Local Open Scope nat_scope.

(* float64 scores as quotients.
   After sc_norm the denominator is >= 0, and a score is a direction (n, d) in the closed upper half plane: -Inf = (n < 0, 0),
   +Inf = (n > 0, 0), NaN = (0, 0).  "a > b" is the sign of the cross product, except between the two infinities, where the
   product vanishes. *)
Definition sc_real (s : score) : Prop := sc_nan (sc_norm s) = false.

Lemma sc_norm_cases s :
  (0 <= sc_d s /\ sc_norm s = s \/ sc_d s < 0 /\ sc_norm s = {| sc_n := - sc_n s; sc_d := - sc_d s |})%Z.
Proof. unfold sc_norm. destruct (Z.ltb_spec (sc_d s) 0); [right|left]; split; auto. Qed.

Lemma sc_norm_nonneg s : (0 <= sc_d (sc_norm s))%Z.
Proof. destruct (sc_norm_cases s) as [[H ->]|[H ->]]; cbn [sc_d]; lia. Qed.

Lemma sc_real_spec s : sc_real s <-> ~ (sc_d (sc_norm s) = 0 /\ sc_n (sc_norm s) = 0)%Z.
Proof.
  unfold sc_real, sc_nan. destruct (Z.eqb_spec (sc_d (sc_norm s)) 0), (Z.eqb_spec (sc_n (sc_norm s)) 0); cbn [andb];
    intuition congruence.
Qed.

Lemma sc_ge1_spec a : sc_ge1 a = true <-> (0 < sc_n (sc_norm a) /\ sc_d (sc_norm a) <= sc_n (sc_norm a))%Z.
Proof.
  unfold sc_ge1, sc_nan. pose proof (sc_norm_nonneg a) as H. destruct (sc_norm a) as [n d]. cbn [sc_n sc_d] in *.
  destruct (Z.eqb_spec d 0) as [->|Hd]; cbn [andb].
  - destruct (Z.eqb_spec n 0) as [->|Hn]; [split; [discriminate|lia]|]. rewrite Z.ltb_lt. lia.
  - rewrite Z.leb_le. lia.
Qed.

(* a above b, for normalised reals *)
Definition sc_above (a b : score) : Prop :=
  (sc_n b * sc_d a < sc_n a * sc_d b \/ sc_d a = 0 /\ sc_d b = 0 /\ sc_n b < 0 < sc_n a)%Z.

Lemma sc_gt_spec a b : sc_gt a b = true <-> sc_real a /\ sc_real b /\ sc_above (sc_norm a) (sc_norm b).
Proof.
  pose proof (sc_norm_nonneg a) as Ha. pose proof (sc_norm_nonneg b) as Hb. rewrite (sc_real_spec a), (sc_real_spec b).
  unfold sc_gt, sc_nan, sc_above. destruct (sc_norm a) as [na da], (sc_norm b) as [nb db]. cbn [sc_n sc_d] in *.
  destruct (Z.eqb_spec da 0) as [->|Hda], (Z.eqb_spec db 0) as [->|Hdb]; cbn [andb orb];
    try (destruct (Z.eqb_spec na 0) as [->|Hna]; cbn [orb]; [split; [discriminate|lia]|]);
    try (destruct (Z.eqb_spec nb 0) as [->|Hnb]; cbn [orb]; [split; [discriminate|lia]|]);
    rewrite ?Bool.andb_true_iff, ?Bool.negb_true_iff, ?Z.ltb_lt, ?Z.ltb_ge; nia.
Qed.

Lemma sc_ge1_inv n d : sc_ge1 {| sc_n := n; sc_d := d |} = true -> (0 <= n)%Z -> (0 < n /\ 0 <= d /\ d <= n)%Z.
Proof. rewrite sc_ge1_spec. destruct (sc_norm_cases {| sc_n := n; sc_d := d |}) as [[H ->]|[H ->]]; cbn [sc_n sc_d] in *; lia. Qed.

Lemma sc_ge1_small n d : (0 <= n)%Z -> (n < d)%Z -> sc_ge1 {| sc_n := n; sc_d := d |} = false.
Proof.
  intros Hn Hd. apply Bool.not_true_is_false. rewrite sc_ge1_spec.
  destruct (sc_norm_cases {| sc_n := n; sc_d := d |}) as [[H ->]|[H ->]]; cbn [sc_n sc_d] in *; lia.
Qed.

Lemma sc_ge1_big n d : (0 < d)%Z -> (d <= n)%Z -> sc_ge1 {| sc_n := n; sc_d := d |} = true.
Proof.
  intros Hd Hn. rewrite sc_ge1_spec.
  destruct (sc_norm_cases {| sc_n := n; sc_d := d |}) as [[H ->]|[H ->]]; cbn [sc_n sc_d] in *; lia.
Qed.

Lemma sc_gt_real a b : sc_gt a b = true -> sc_real a.
Proof. intros H. apply sc_gt_spec in H. apply H. Qed.

(* b >= a >= 1 *)
Lemma sc_dominated a b : sc_ge1 a = true -> sc_gt a b = false -> sc_real b -> sc_ge1 b = true.
Proof.
  rewrite !sc_ge1_spec. intros Ha Hn Rb. pose proof (sc_norm_nonneg a) as Pa. pose proof (sc_norm_nonneg b) as Pb.
  assert (N : ~ sc_above (sc_norm a) (sc_norm b)).
  { intros Q. rewrite (proj2 (sc_gt_spec a b)) in Hn; [discriminate|]. split; [apply sc_real_spec; lia|]. split; assumption. }
  apply sc_real_spec in Rb. unfold sc_above in N. nia.
Qed.

(* a > b >= 1 *)
Lemma sc_gt_ge1 a b : sc_gt a b = true -> sc_ge1 b = true -> sc_ge1 a = true.
Proof.
  rewrite !sc_ge1_spec, sc_gt_spec. unfold sc_above. pose proof (sc_norm_nonneg a) as Pa. pose proof (sc_norm_nonneg b) as Pb.
  intros [_ [_ H]] Hb. nia.
Qed.

Definition sc_init : score := {| sc_n := -1; sc_d := 1 |}.

Lemma sc_init_real : sc_real sc_init.
Proof. reflexivity. Qed.

Section Auto.
  Variable c : comparer.
  Hypothesis ok : comparer_ok c.
  Variable p : kparams.
  Hypothesis pok : kparams_ok p.
  Variable sz : table -> N.
  Variable o : copts.
  Variable bld : nat -> list (list table) -> compaction -> list table.
  Variable ms : nat -> N.
  Hypothesis B_ok : bld_ok c p sz o bld ms.

  Notation wf_lsm := (wf_lsm c p).
  Notation level_score := (level_score sz o).

  (* computeCompaction: the running best is a real score, either the initial one or that of a level *)
  Definition best_good (v : list (list table)) (best : option nat * score) : Prop :=
    sc_real (snd best) /\
    (snd best = sc_init \/ exists l, fst best = Some l /\ snd best = level_score l (lv v l)).

  Lemma compute_from_spec v : forall ls level best, (forall j, nth j ls [] = lv v (level + j)) ->
    best_good v best -> (forall j, j < level -> sc_ge1 (level_score j (lv v j)) = true -> sc_ge1 (snd best) = true) ->
    let r := compute_from sz o level ls best in
    best_good v r /\ (forall j, j < level + length ls -> sc_ge1 (level_score j (lv v j)) = true -> sc_ge1 (snd r) = true).
  Proof.
    induction ls as [|tf ls IH]; intros level best Hn G D; cbn [compute_from].
    - cbn [length]. rewrite Nat.add_0_r. split; assumption.
    - cbv zeta. assert (Etf : tf = lv v level) by (pose proof (Hn 0) as Q0; cbn [nth] in Q0; rewrite Nat.add_0_r in Q0; exact Q0).
      set (s := level_score level tf).
      set (b1 := if sc_gt s (snd best) then (Some level, s) else best).
      assert (G1 : best_good v b1).
      { unfold b1. destruct (sc_gt s (snd best)) eqn:Q; [|exact G]. split; cbn [fst snd].
        - apply (sc_gt_real _ _ Q).
        - right. exists level. split; [reflexivity|]. unfold s. rewrite Etf. reflexivity. }
      assert (D1 : forall j, j < S level -> sc_ge1 (level_score j (lv v j)) = true -> sc_ge1 (snd b1) = true).
      { intros j Hj Hs. unfold b1. destruct (Nat.eq_dec j level) as [->|Hne].
        - rewrite <- Etf in Hs. fold s in Hs. destruct (sc_gt s (snd best)) eqn:Q; cbn [snd]; [exact Hs|].
          apply (sc_dominated s (snd best) Hs Q). apply G.
        - assert (Hb : sc_ge1 (snd best) = true) by (apply (D j); [lia|exact Hs]).
          destruct (sc_gt s (snd best)) eqn:Q; cbn [snd]; [|exact Hb].
          apply (sc_gt_ge1 s (snd best) Q Hb). }
      specialize (IH (S level) b1 ltac:(intros j; pose proof (Hn (S j)) as Qj; cbn [nth] in Qj; rewrite Qj; f_equal; lia) G1 D1). cbv zeta in IH.
      destruct IH as [I1 I2]. split; [exact I1|]. intros j Hj. apply I2. cbn [length] in Hj. lia.
  Qed.

  Lemma compute_compaction_spec v :
    let r := compute_compaction sz o v in
    best_good v r /\ (forall j, sc_ge1 (level_score j (lv v j)) = true -> sc_ge1 (snd r) = true).
  Proof.
    unfold compute_compaction.
    destruct (compute_from_spec v v 0 (None, sc_init)) as [G D].
    - intros j. reflexivity.
    - split; [exact sc_init_real|left; reflexivity].
    - intros j Hj. lia.
    - cbv zeta. split; [exact G|]. intros j Hs. destruct (Nat.lt_ge_cases j (length v)) as [Q|Q]; [apply (D j); [lia|exact Hs]|].
      exfalso. unfold lv in Hs. rewrite nth_overflow in Hs by exact Q.
      unfold RangeCompact.level_score in Hs. destruct (Nat.eqb j 0).
      + cbn [length] in Hs. destruct (sc_ge1_inv _ _ Hs ltac:(cbn; lia)) as [H1 _]. cbn in H1. lia.
      + cbn in Hs. destruct (sc_ge1_inv _ _ Hs ltac:(lia)) as [H1 _]. lia.
  Qed.

  Lemma total_size_from tf : forall a, fold_left (fun a t => (a + sz t)%N) tf a = (a + total_size sz tf)%N.
  Proof.
    unfold total_size. induction tf as [|t tf IH]; intros a; cbn [fold_left]; [lia|].
    rewrite IH. rewrite (IH (0 + sz t)%N). lia.
  Qed.

  Lemma total_size_cons t tf : total_size sz (t :: tf) = (sz t + total_size sz tf)%N.
  Proof. unfold total_size at 1. cbn [fold_left]. rewrite total_size_from. lia. Qed.

  (* a level whose score reaches 1 is not empty *)
  Lemma score_ge1_nonempty l tf : sc_ge1 (level_score l tf) = true -> tf <> [].
  Proof.
    intros H E. subst tf. unfold RangeCompact.level_score in H. destruct (Nat.eqb l 0).
    - destruct (sc_ge1_inv _ _ H ltac:(cbn; lia)) as [H1 _]. cbn in H1. lia.
    - destruct (sc_ge1_inv _ _ H ltac:(cbn; lia)) as [H1 _]. cbn in H1. lia.
  Qed.

  (* pickCompaction: a cSeek names a live table of a level below K *)
  Definition seek_ok (st : cpstate) (K : nat) : Prop :=
    forall l t, cp_seek st = Some (l, t) -> In t (lv (cp_v st) l) /\ l < K.

  Lemma tnth_in (tf : list table) i : i < length tf -> In (tnth tf i) tf.
  Proof. intros H. unfold tnth. apply nth_In. exact H. Qed.

  Lemma pick_seed_spec st K : seek_ok st K -> need_compaction sz o st = true ->
    exists lvl seed ty, pick_seed c sz o st = POk (Some (lvl, seed, ty)) /\ seed_ok (cp_v st) lvl seed /\
      (sc_ge1 (level_score lvl (lv (cp_v st) lvl)) = true \/ lvl < K).
  Proof.
    intros Sk Hn. unfold need_compaction in Hn. unfold pick_seed.
    destruct (compute_compaction_spec (cp_v st)) as [[_ G] _]. cbv zeta in G.
    destruct (sc_ge1 (snd (compute_compaction sz o (cp_v st)))) eqn:Q.
    - destruct G as [G|[l [G1 G2]]]; [rewrite G in Q; discriminate|]. rewrite G1.
      rewrite G2 in Q. pose proof (score_ge1_nonempty l _ Q) as Hne. unfold lv in Hne.
      set (tables := nth l (cp_v st) []) in *.
      assert (Fallback : forall t0 : list table, (t0 = [] \/ exists i, i < length tables /\ t0 = [tnth tables i]) ->
                exists seed, match t0, tables with
                             | _ :: _, _ => POk (Some (l, t0, if Nat.eqb l 0 then TLevel0 else TNonLevel0))
                             | [], t :: _ => POk (Some (l, [t], if Nat.eqb l 0 then TLevel0 else TNonLevel0))
                             | [], [] => PPanic
                             end = POk (Some (l, seed, if Nat.eqb l 0 then TLevel0 else TNonLevel0)) /\
                             seed_ok (cp_v st) l seed).
      { intros t0 [->|[i [Hi ->]]].
        - destruct tables as [|t r] eqn:Et; [congruence|]. exists [t]. split; [reflexivity|].
          split; [discriminate|]. split; [|repeat constructor; intros []].
          intros x [<-|[]]. unfold lv. fold tables. rewrite Et. left; reflexivity.
        - exists [tnth tables i]. split; [reflexivity|]. split; [discriminate|]. split; [|repeat constructor; intros []].
          intros x [<-|[]]. unfold lv. fold tables. apply tnth_in. exact Hi. }
      match goal with |- context [match ?T with [] => _ | _ :: _ => _ end] => set (t0 := T) end.
      assert (Ht0 : t0 = [] \/ exists i, i < length tables /\ t0 = [tnth tables i]).
      { unfold t0. destruct (get_ptr (cp_ptrs st) l) as [cptr|]; [|left; reflexivity].
        destruct (Nat.ltb 0 l); [|left; reflexivity]. cbv zeta.
        match goal with |- context [Nat.ltb ?I (length tables)] => destruct (Nat.ltb I (length tables)) eqn:Qi end;
          [|left; reflexivity].
        apply Nat.ltb_lt in Qi. right. eexists. split; [exact Qi|reflexivity]. }
      destruct (Fallback t0 Ht0) as [seed [E Sok]]. exists l, seed, (if Nat.eqb l 0 then TLevel0 else TNonLevel0).
      split; [exact E|]. split; [exact Sok|]. left. exact Q.
    - cbn [orb] in Hn. destruct (cp_seek st) as [[l t]|] eqn:Es; [|discriminate].
      destruct (Sk l t Es) as [H1 H2]. exists l, [t], TSeek. split; [reflexivity|].
      split; [|right; exact H2]. split; [discriminate|]. split; [|repeat constructor; intros []].
      intros x [<-|[]]. exact H1.
  Qed.

  Variable Bz : N.
  Hypothesis sz_bound : forall t, (sz t <= Bz * N.of_nat (length (t_entries t)))%N.

  Lemma total_size_bound tf : (total_size sz tf <= Bz * N.of_nat (elen tf))%N.
  Proof.
    induction tf as [|t tf IH]; [cbn; lia|]. rewrite total_size_cons, elen_cons. pose proof (sz_bound t). lia.
  Qed.

  Variable K n0 : nat.
  Hypothesis HK : 1 <= K.
  Hypothesis limits_grow : forall L, K <= L -> (Z.of_N (Bz * N.of_nat n0) < o_tot_limit o L)%Z.

  Definition ainv (st : cpstate) : Prop :=
    wf_lsm (cp_v st) /\ levels_below (cp_v st) (S K) /\ tsum (S K) (tl (cp_v st)) <= n0 /\ seek_ok st K.

  Lemma scored_level_below v l : levels_below v (S K) -> tsum (S K) (tl v) <= n0 ->
    sc_ge1 (level_score l (lv v l)) = true -> l < K.
  Proof.
    intros Hb Ht Hs. destruct (Nat.lt_ge_cases l K) as [Q|Q]; [exact Q|]. exfalso.
    unfold RangeCompact.level_score in Hs. replace (Nat.eqb l 0) with false in Hs by (symmetry; apply Nat.eqb_neq; lia).
    rewrite sc_ge1_small in Hs; [discriminate|lia|].
    eapply Z.le_lt_trans; [|apply (limits_grow l Q)].
    pose proof (total_size_bound (lv v l)) as B1.
    assert (B2 : elen (lv v l) <= n0).
    { destruct (Nat.eq_dec l K) as [->|Hne].
      - pose proof (tsum_member (S K) (tl v) K ltac:(lia)). unfold tl at 1 in H. lia.
      - rewrite (Hb l) by lia. cbn. lia. }
    nia.
  Qed.

  Lemma auto_step_spec st : ainv st -> need_compaction sz o st = true ->
    exists st', auto_step c sz o bld st = POk st' /\ ainv st' /\ wsum K (tl (cp_v st')) + 1 <= wsum K (tl (cp_v st)).
  Proof.
    intros [W [Hb [Ht Sk]]] Hn. unfold auto_step, pick_compaction.
    destruct (pick_seed_spec st K Sk Hn) as [lvl [seed [ty [E [Sok Hl]]]]]. rewrite E. cbn [pbind].
    assert (Hlt : lvl < K) by (destruct Hl as [Hl|Hl]; [apply (scored_level_below _ _ Hb Ht Hl)|exact Hl]).
    pose proof Sok as [S1 [S2 S3]].
    destruct (model_pick c ok p sz (cp_v st) W lvl (o_exp_limit o lvl) seed S1 S2 S3) as [cm [En _]].
    rewrite En. cbn [pbind].
    destruct (table_compaction_spec c ok p pok sz o bld ms B_ok st lvl seed cm false W Sok En)
      as [st' [Et [Rel [_ [Es _]]]]].
    exists st'. split; [exact Et|]. split.
    - split; [apply Rel|]. split; [apply (step_rel_below c p (cp_v st) lvl (cp_v st') (S K) Rel Hb); lia|].
      split; [pose proof (step_rel_tsum c p (cp_v st) lvl (cp_v st') (S K) Rel); lia|].
      intros l t Q. rewrite Es in Q. discriminate.
    - apply (step_rel_wsum c p (cp_v st) lvl (cp_v st') K Rel Hlt).
  Qed.

  Theorem auto_loop_quiesces : forall fuel st, ainv st -> wsum K (tl (cp_v st)) <= fuel ->
    exists st', auto_loop c sz o bld fuel st = POk st' /\ need_compaction sz o st' = false /\ ainv st'.
  Proof.
    induction fuel as [|fuel IH]; intros st I Hf.
    - cbn [auto_loop]. destruct (need_compaction sz o st) eqn:Hn; [|exists st; split; [reflexivity|split; [exact Hn|exact I]]].
      destruct (auto_step_spec st I Hn) as [st' [_ [_ M]]]. lia.
    - cbn [auto_loop]. destruct (need_compaction sz o st) eqn:Hn; [|exists st; split; [reflexivity|split; [exact Hn|exact I]]].
      destruct (auto_step_spec st I Hn) as [st1 [E [I1 M]]]. rewrite E. cbn [pbind]. apply (IH st1 I1). lia.
  Qed.
End Auto.

(* the write throttle: a quiescent version lets writers through *)
Lemma quiescent_resumes_write sz o st :
  need_compaction sz o st = false -> (0 < o_l0_trigger o)%Z -> (o_l0_trigger o <= o_l0_pause o)%Z ->
  resume_write o st = true.
Proof.
  intros Hn H0 H1. unfold need_compaction in Hn. apply Bool.orb_false_iff in Hn as [Hn _].
  unfold resume_write. apply Z.ltb_lt.
  destruct (compute_compaction_spec sz o (cp_v st)) as [_ D]. cbv zeta in D.
  destruct (Z.lt_ge_cases (Z.of_nat (length (nth 0 (cp_v st) []))) (o_l0_trigger o)) as [Q|Q]; [lia|].
  exfalso. specialize (D 0). unfold RangeCompact.level_score, lv in D. cbn [Nat.eqb] in D.
  rewrite (sc_ge1_big _ _ H0 Q) in D. specialize (D eq_refl). congruence.
Qed.

Lemma fold_max_ge (l : list N) x : In x l -> (x <= fold_right N.max 0 l)%N.
Proof.
  induction l as [|a l IH]; intros H; [destruct H|]. cbn [fold_right]. destruct H as [->|H]; [lia|].
  specialize (IH H). lia.
Qed.

Lemma simple_bld_ok c (ok : comparer_ok c) p sz o ms : bld_ok c p sz o (simple_bld c p ms) ms.
Proof.
  intros k v lvl seed cm W [S1 [S2 S3]] E.
  destruct (model_pick c ok p sz v W lvl (o_exp_limit o lvl) seed S1 S2 S3) as [cm' [E' Pk]].
  rewrite E in E'. injection E' as <-. pose proof (pk_level c v lvl seed cm Pk) as El.
  unfold simple_bld. rewrite El.
  destruct (compact_entries c p (ms k) (skipn (lvl + 2) v) (c_t0 cm ++ c_t1 cm)) as [|e kept] eqn:Ek.
  - exists [], []. split; [reflexivity|]. split; [split; [reflexivity|rewrite Ek; reflexivity]|].
    split; [reflexivity|]. split; [constructor|intros n i s []].
  - exists [e :: kept], [(max_num v + 1)%N]. split; [reflexivity|].
    split; [split; [reflexivity|rewrite Ek; cbn [concat]; apply app_nil_r]|]. split; [reflexivity|].
    split; [repeat constructor; intros []|]. intros n i s [<-|[]] Hs Q.
    assert (Hin : In (t_num s) (nums_of (concat v))).
    { apply in_map. apply (in_level_concat v i s Hs). }
    pose proof (fold_max_ge _ _ Hin) as Hm. unfold max_num in Q. lia.
Qed.

Section ClosedAuto.
  Variable c : comparer.
  Hypothesis ok : comparer_ok c.
  Variable p : kparams.
  Hypothesis pok : kparams_ok p.
  Variable sz : table -> N.
  Variable o : copts.
  Variable bld : nat -> list (list table) -> compaction -> list table.
  Variable ms : nat -> N.
  Hypothesis B_ok : bld_ok c p sz o bld ms.

  (* a table is at most Bz bytes per entry *)
  Definition size_bounded (Bz : N) : Prop := forall t, (sz t <= Bz * N.of_nat (length (t_entries t)))%N.
  (* from level K on, the level limit exceeds what n entries can weigh *)
  Definition limits_exceed (Bz : N) (n K : nat) : Prop :=
    forall L, K <= L -> (Z.of_N (Bz * N.of_nat n) < o_tot_limit o L)%Z.
  (* cSeek names a table of the version *)
  Definition seek_in (st : cpstate) : Prop := forall l t, cp_seek st = Some (l, t) -> In t (lv (cp_v st) l).

  Theorem auto_compaction_quiesces st Bz K :
    wf_lsm c p (cp_v st) -> seek_in st -> size_bounded Bz -> 1 <= K -> length (cp_v st) <= K ->
    limits_exceed Bz (elen (concat (cp_v st))) K ->
    forall fuel, K * elen (concat (cp_v st)) <= fuel ->
    exists st', auto_loop c sz o bld fuel st = POk st' /\ need_compaction sz o st' = false /\ wf_lsm c p (cp_v st') /\
                levels_below (cp_v st') (S K).
  Proof.
    intros W Sk Hz HK Hl Hlim fuel Hf.
    assert (I : ainv c p K (elen (concat (cp_v st))) st).
    { split; [exact W|]. split; [apply (levels_below_mono _ (length (cp_v st))); [apply levels_below_length|lia]|].
      split; [apply tsum_tl_le|]. intros l t E. split; [apply (Sk l t E)|].
      destruct (Nat.lt_ge_cases l K) as [Q|Q]; [exact Q|]. exfalso. pose proof (Sk l t E) as Hin.
      unfold lv in Hin. rewrite nth_overflow in Hin by lia. destruct Hin. }
    destruct (auto_loop_quiesces c ok p pok sz o bld ms B_ok Bz Hz K (elen (concat (cp_v st))) HK Hlim fuel st I)
      as [st' [E [Hn [W' [Hb _]]]]].
    - pose proof (wsum_le_entries K (cp_v st)). lia.
    - exists st'. split; [exact E|]. split; [exact Hn|]. split; [exact W'|exact Hb].
  Qed.
End ClosedAuto.

(* A table alone in the version, in a level >= 1 where it scores >= 1: the step moves it one level down. *)
Section LoneTable.
  Variable c : comparer.
  Variable sz : table -> N.
  Variable o : copts.
  Variable bld : nat -> list (list table) -> compaction -> list table.
  Variable t : table.

  Definition lone (n : nat) (v : list (list table)) : Prop :=
    length v = n + 2 /\ lv v (S n) = [t] /\ forall j, j <> S n -> lv v j = [].

  Lemma lone_scored n v : lone n v -> sc_ge1 (level_score sz o (S n) [t]) = true ->
    fst (compute_compaction sz o v) = Some (S n) /\ sc_ge1 (snd (compute_compaction sz o v)) = true.
  Proof.
    intros [_ [Ht He]] Hs. destruct (compute_compaction_spec sz o v) as [[_ G] D]. cbv zeta in G, D.
    assert (Q : sc_ge1 (snd (compute_compaction sz o v)) = true) by (apply (D (S n)); rewrite Ht; exact Hs).
    split; [|exact Q]. destruct G as [G|[l [G1 G2]]]; [rewrite G in Q; discriminate|].
    rewrite G1. f_equal. destruct (Nat.eq_dec l (S n)) as [E|E]; [exact E|].
    rewrite G2, (He l E) in Q. destruct (score_ge1_nonempty sz o l [] Q eq_refl).
  Qed.

  Lemma lone_step n st : lone n (cp_v st) -> sc_ge1 (level_score sz o (S n) [t]) = true ->
    exists st', auto_step c sz o bld st = POk st' /\ lone (S n) (cp_v st') /\ cp_n st' = S (cp_n st).
  Proof.
    intros L Hs. destruct (lone_scored n _ L Hs) as [E1 E2]. destruct L as [Hl [Ht He]]. unfold lv in Ht, He.
    set (cm := {| c_level := S n; c_t0 := [t]; c_t1 := []; c_gp := []; c_imin := imin_of t; c_imax := imax_of t |}).
    assert (Ep : pick_compaction c sz o st = POk (Some cm)).
    { unfold pick_compaction, pick_seed. rewrite E2, E1, Ht.
      match goal with |- context [match ?T with [] => _ | _ :: _ => _ end] => set (t0 := T) end.
      assert (Et0 : t0 = [] \/ t0 = [t]).
      { unfold t0. destruct (get_ptr (cp_ptrs st) (S n)); [|left; reflexivity]. set (i0 := sort_search _ _).
        destruct (Nat.ltb_spec i0 (length [t])) as [Q|Q]; [right; cbn [length] in Q; replace i0 with 0 by lia|left]; reflexivity. }
      destruct Et0 as [-> | ->]; cbn [Nat.eqb pbind]; unfold new_compaction, expand;
        rewrite (He (S (S n))), (He (S n + 2)) by lia; destruct (Nat.ltb (S n + 2) (length (cp_v st))); reflexivity. }
    assert (Ef : exists nv, finish c true (cp_v st) (move_edit cm) = POk nv /\ lone (S n) nv).
    { destruct (finish_levels c true (cp_v st) (move_edit cm) (fun l => if Nat.eqb (S (S n)) l then [t] else []))
        as [nv [E H]].
      - intros l. unfold level_fn, move_edit. rewrite adds_at_ce. unfold cm. cbn [c_level c_t0].
        destruct (Nat.eqb (S (S n)) l) eqn:Q.
        + apply Nat.eqb_eq in Q. subst l. rewrite (He (S (S n))) by lia. reflexivity.
        + rewrite finish_level_no_adds. destruct (Nat.eq_dec l (S n)) as [->|Q1]; [|rewrite (He l Q1); reflexivity].
          rewrite Ht. unfold dels_at. rewrite dels_raw_ce, adds_at_ce. unfold cm. cbn [c_level c_t0 c_t1]. rewrite Nat.eqb_refl, Q.
          cbn. rewrite N.eqb_refl. reflexivity.
      - exists nv. split; [exact E|]. split; [|split].
        + apply finish_length in E. rewrite Hl in E. cbn in E.
          assert (Q : nth (S (S n)) nv [] <> []) by (fold (lv nv (S (S n))); rewrite H, Nat.eqb_refl; discriminate).
          destruct (Nat.lt_ge_cases (S (S n)) (length nv)) as [Q1|Q1]; [lia|]. rewrite nth_overflow in Q by exact Q1. congruence.
        + rewrite H, Nat.eqb_refl. reflexivity.
        + intros j Hj. rewrite H. apply Nat.eqb_neq in Hj. rewrite Nat.eqb_sym, Hj. reflexivity. }
    destruct Ef as [nv [Ef Ln]]. unfold auto_step. rewrite Ep. cbn [pbind]. unfold table_compaction.
    assert (Et : trivial sz cm (o_gp_limit o (c_level cm)) = true) by (unfold trivial; cbn; apply N.leb_le; lia).
    rewrite Et. cbn [negb andb]. rewrite Ef. cbn [pbind]. eexists. split; [reflexivity|]. split; [exact Ln|reflexivity].
  Qed.

  Lemma lone_needs n st : lone n (cp_v st) -> sc_ge1 (level_score sz o (S n) [t]) = true -> need_compaction sz o st = true.
  Proof. intros L Hs. unfold need_compaction. rewrite (proj2 (lone_scored n _ L Hs)). reflexivity. Qed.
End LoneTable.
