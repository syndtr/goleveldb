(* Lsm/LsmPreProofs.v — the read path for every comparer that satisfies the PREORDER contract (Base/OrderPre.v
   comparer_pre_ok), under well-formedness conditions that speak about equivalence classes of user keys (newer_thanE,
   uniqE): wf_state_pre implies what LsmProofs.get_correct_vis needs, for every probe.  For injective comparers
   wf_state implies wf_state_pre (wf_state_to_pre). *)
From GL Require Import Base.OrderPre Codec.IKeyPreProofs Lsm.Lsm Lsm.LsmProofs.

Section Proofs.
  Variable c : comparer.
  Hypothesis ok : comparer_pre_ok c.
  Variable p : kparams.
  Hypothesis pok : kparams_ok p.

  Notation ecmp := (ecmp c).
  Notation vis := (vis c).
  Notation newest := (newest c).
  Notation ssorted := (ssorted c).
  Notation kinds_ok := (kinds_ok p).
  Notation tables_ok := (tables_ok c p).
  Notation level_ok := (level_ok c p).

  Lemma pecmp_lt_trans a b d : ecmp a b = Lt -> ecmp b d = Lt -> ecmp a d = Lt.
  Proof. apply (picmp_trans c ok). Qed.

  Definition newer_thanE (hi lo : list entry) : Prop :=
    forall a b, In a hi -> In b lo -> cmp c (e_uk a) (e_uk b) = Eq -> e_seq b < e_seq a.

  Lemma newer_thanE_vis k s hi lo : newer_thanE hi lo -> older_vis c k s hi lo.
  Proof. intros H a b Ha Hb Va Vb. apply (H a b Ha Hb). apply (same_class_of_vis c ok k s a b Va Vb). Qed.

  (* no two entries share user key (class) and sequence number *)
  Definition same_ks (a b : entry) : Prop := cmp c (e_uk a) (e_uk b) = Eq /\ e_seq a = e_seq b.
  Fixpoint uniqE (l : list entry) : Prop :=
    match l with
    | [] => True
    | a :: l' => (forall b, In b l' -> ~ same_ks a b) /\ uniqE l'
    end.

  Lemma uniqE_in l : uniqE l -> forall a b, In a l -> In b l -> same_ks a b -> a = b.
  Proof.
    induction l as [|x l IH]; [intros _ a b []|]. intros [H1 H2] a b Ha Hb [Hu Hs].
    destruct Ha as [->|Ha]; destruct Hb as [->|Hb]; [reflexivity| | |apply IH; [..|split]; assumption].
    - exfalso. apply (H1 b Hb). split; assumption.
    - exfalso. apply (H1 a Ha). split; [apply (pcmp_eq_sym c ok); exact Hu|symmetry; exact Hs].
  Qed.

  Lemma uniqE_vis k s l : uniqE l -> uniq_vis c k s l.
  Proof.
    intros H a b Ha Hb Va Vb E. apply (uniqE_in l H a b Ha Hb). split; [apply (same_class_of_vis c ok k s a b Va Vb)|exact E].
  Qed.

  Fixpoint chain_newerE (cs : list (list entry)) : Prop :=
    match cs with
    | [] => True
    | x :: rest => Forall (fun y => newer_thanE x y) rest /\ chain_newerE rest
    end.

  Lemma chain_newerE_vis k s cs : chain_newerE cs -> chain_vis c k s cs.
  Proof.
    induction cs as [|x rest IH]; cbn; [auto|]. intros [H1 H2]. split; [|apply IH; exact H2].
    rewrite Forall_forall in *. intros y Hy. apply newer_thanE_vis. apply H1. exact Hy.
  Qed.

  Record wf_state_pre (st : lstate) : Prop := {
    pwf_mem : ssorted (st_mem st) /\ kinds_ok (st_mem st);
    pwf_frozen : ssorted (st_frozen st) /\ kinds_ok (st_frozen st);
    pwf_aux : tables_ok (st_aux st) /\ uniqE (level_entries (st_aux st));
    pwf_l0 : tables_ok (hd [] (st_levels st)) /\ uniqE (level_entries (hd [] (st_levels st)));
    pwf_deep : Forall level_ok (tl (st_levels st));
    pwf_chain : chain_newerE (comps st)
  }.

  Lemma wf_state_pre_vis st k s : wf_state_pre st -> wf_vis c p k s st.
  Proof.
    intros [H1 H2 [H3 H3'] [H4 H4'] H5 H6]. constructor; auto using chain_newerE_vis.
    - split; [exact H3|apply uniqE_vis; exact H3'].
    - split; [exact H4|apply uniqE_vis; exact H4'].
  Qed.

  (* DB.get / version.get on a well-formed layout returns the newest entry of k's CLASS with seq <= s among all
     stored entries, for every preorder comparer *)
  Theorem get_correct_pre st k s : wf_state_pre st ->
    lsm_get c p st k s = group_res p (newest k s (all_entries st) None).
  Proof. intros H. apply (get_correct_vis c ok p pok). apply wf_state_pre_vis. exact H. Qed.

  Corollary get_refines_spec_pre st k s : wf_state_pre st ->
    api_of (lsm_get c p st k s) = spec_get c p st k s.
  Proof. intros H. unfold spec_get. rewrite (get_correct_pre st k s H). reflexivity. Qed.

  (* the answer depends on the class of the key only: every spelling of a user key reads the same *)
  Lemma newest_key_compat k k' s l acc : cmp c k k' = Eq -> newest k s l acc = newest k' s l acc.
  Proof.
    intros H. revert acc; induction l as [|e l IH]; intros acc; cbn [Lsm.newest]; [reflexivity|].
    rewrite (pvis_key_compat c ok k k' s e H). apply IH.
  Qed.

  Theorem get_spelling_irrelevant st k k' s : wf_state_pre st -> cmp c k k' = Eq ->
    lsm_get c p st k s = lsm_get c p st k' s.
  Proof.
    intros Hwf H. rewrite !get_correct_pre by exact Hwf. rewrite (newest_key_compat k k' s _ None H). reflexivity.
  Qed.
End Proofs.

Section Injective.
  Variable c : comparer.
  Hypothesis ok : comparer_ok c.
  Variable p : kparams.
  Hypothesis pok : kparams_ok p.

  Lemma newer_thanP_E hi lo : newer_thanP hi lo -> newer_thanE c hi lo.
  Proof. intros H a b Ha Hb E. apply (cmp_eq c ok) in E. apply (H a b Ha Hb E). Qed.

  Lemma uniq_E l : uniq l -> uniqE c l.
  Proof.
    unfold uniq. induction l as [|a l IH]; cbn [map uniqE]; [auto|]. intros H.
    apply NoDup_cons_iff in H as [Hn Hnd]. split; [|apply IH; exact Hnd].
    intros b Hb [E1 E2]. apply (cmp_eq c ok) in E1. apply Hn. apply in_map_iff. exists b.
    split; [unfold keyseq; congruence|exact Hb].
  Qed.

  Lemma chain_newer_E cs : chain_newer cs -> chain_newerE c cs.
  Proof.
    induction cs as [|x rest IH]; cbn; [auto|]. intros [H1 H2]. split; [|apply IH; exact H2].
    rewrite Forall_forall in *. intros y Hy. apply newer_thanP_E. apply H1. exact Hy.
  Qed.

  Lemma wf_state_to_pre st : wf_state c p st -> wf_state_pre c p st.
  Proof.
    intros [H1 H2 [H3 H3'] [H4 H4'] H5 H6]. constructor; auto.
    - split; [exact H3|apply uniq_E; exact H3'].
    - split; [exact H4|apply uniq_E; exact H4'].
    - apply chain_newer_E. exact H6.
  Qed.

  Corollary get_correct_from_pre st k s : wf_state c p st ->
    lsm_get c p st k s = group_res p (newest c k s (all_entries st) None).
  Proof. intros H. apply (get_correct_pre c (comparer_ok_pre c ok) p pok). apply wf_state_to_pre. exact H. Qed.
End Injective.
