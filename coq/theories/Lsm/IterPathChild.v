(* Lsm/IterPathChild.v — the children of the DB's merged iterator behave like cursors:
   (1) the memdb iterator of Mem/MemDB.v over a memdb state satisfying C14's representation invariant
       refines the cursor over the pairs of the skip list inside the slice, never panics and never runs
       out of fuel (C14's per-call lemmas Mem/MemIter.v it_first_ok ... it_prev_ok, used as they stand);
   (2) the table iterator of Codec/Table.v over a reader satisfying C13's table_wf refines the cursor over
       the table's pairs inside the slice (C13's table_iter_refines / table_iter_range_refines).
   Both in the vocabulary of Iter/Cursor.v ([refines]) so that the merged / indexed machines of C02 apply. *)
From GL Require Import Codec.IKey Codec.Table Codec.TableProofs Codec.TableIterProofs Codec.TableEmptyProofs
  Lsm.ReadPath
  Lsm.ReadPathKey Lsm.ReadPathMem Lsm.IterPath.
From GL Require Mem.ListLemmas.
From GL Require Import Mem.MemSpec Mem.MemInv Mem.MemIter.
From GL Require Import Iter.Cursor Iter.CursorProofs Iter.CursorBridge Iter.LiveProofs.
From Coq Require Import Lia.

Section Slices.
  Variable c : comparer.
  Hypothesis ok : comparer_ok c.

  Lemma in_range_bridge sl (kv : bytes * bytes) :
    MemSpec.in_range c sl (fst kv) =
    match sl with None => true | Some (a, b) => Base.Cursor.in_range c a b kv end.
  Proof.
    destruct sl as [[a b]|]; [|reflexivity]. unfold MemSpec.in_range, Base.Cursor.in_range. f_equal.
    destruct a as [s|]; [|reflexivity]. unfold Order.ltb, Order.leb. rewrite (cmp_opp c ok s (fst kv)).
    destruct (cmp c s (fst kv)); reflexivity.
  Qed.

  Lemma vis_sl_pairs sl (m : list (bytes * bytes)) : vis c sl m = sl_pairs c sl m.
  Proof.
    unfold vis, sl_pairs. destruct sl as [[a b]|].
    - unfold Base.Cursor.restrict. apply filter_ext. intros kv. apply (in_range_bridge (Some (a, b))).
    - induction m as [|x m IH]; [reflexivity|]. cbn [filter MemSpec.in_range]. f_equal. exact IH.
  Qed.

  Lemma sl_pairs_sorted sl (l : list (bytes * bytes)) : sorted_kv (cmp c) l -> sorted_kv (cmp c) (sl_pairs c sl l).
  Proof.
    intros H. destruct sl as [[a b]|]; [|exact H]. cbn [sl_pairs]. unfold Base.Cursor.restrict.
    apply (sorted_kv_filter c). exact H.
  Qed.

  Lemma sl_pairs_incl sl (l : list (bytes * bytes)) x : In x (sl_pairs c sl l) -> In x l.
  Proof.
    destruct sl as [[a b]|]; [|auto]. cbn [sl_pairs]. unfold Base.Cursor.restrict. intros H.
    apply filter_In in H. apply H.
  Qed.
End Slices.

Lemma find_ext' {A} (g h : A -> bool) (l : list A) : (forall x, g x = h x) -> find g l = find h l.
Proof. intros E. induction l as [|x l IH]; [reflexivity|]. cbn [find]. rewrite E, IH. reflexivity. Qed.

Lemma find_last_b_ext {K V} (g h : K * V -> bool) (l : list (K * V)) :
  (forall x, g x = h x) -> find_last_b g l = find_last_b h l.
Proof. intros E. induction l as [|x l IH]; [reflexivity|]. cbn [find_last_b]. rewrite E, IH. reflexivity. Qed.

Lemma find_last_b_eq {K V} (g : K * V -> bool) (l : list (K * V)) : find_last g l = find_last_b g l.
Proof. induction l as [|x l IH]; [reflexivity|]. cbn [find_last find_last_b]. rewrite IH. reflexivity. Qed.

Section MemChild.
  Variable uc : comparer.                (* the user comparer; the memdb is ordered by the internal-key comparer over it *)
  Hypothesis uok : comparer_ok uc.
  Local Notation c := (ibc uc).
  Local Notation ok := (ibc_ok uc uok).
  Variable mp : mparams.
  Hypothesis mpok : mparams_ok mp.
  Variables (d : db) (A L : list N).
  Hypothesis I : Inv c (tMaxHeight mp) d A L.
  Variable sl : option krange.

  Local Notation m := (MemInv.abs d L).
  Local Notation lv := (vis c sl m).
  Local Notation fok := (cmp_ord_ok c ok).

  Local Notation stepf := (mc_step uc mp).

  Lemma lv_sorted : sorted_kv (cmp c) lv.
  Proof.
    apply (sorted_kv_filter c).
    pose proof (inv_sorted _ _ _ _ _ I) as HS. unfold key_sorted in HS. unfold MemInv.abs.
    clear I. induction L as [|x l IH]; [constructor|].
    cbn [ListLemmas.sorted] in HS. destruct HS as [HF HS]. cbn [map].
    constructor; [apply IH; exact HS|].
    apply Forall_map. eapply Forall_impl; [|exact HF]. intros y Hy. exact Hy.
  Qed.

  Definition cu_at (cu : cursor) (q : pos) : Prop :=
    cu_slice cu = sl /\ cu_stale cu = false /\
    match cu_cur cu with
    | Some kv => exists i, q = At i /\ nth_error lv i = Some kv
    | None => q = if cu_fwd cu then EOI else SOI
    end.

  Definition MR (x : mchild) (q : pos) : Prop :=
    mc_db x = d /\ mc_bad x = false /\ exists cu, Rit c d L (mc_it x) cu /\ cu_at cu q.

  Lemma cobs_at_some (l : list (bytes * bytes)) q kv : cobs l q = Some kv -> exists i, q = At i /\ nth_error l i = Some kv.
  Proof. destruct q; cbn [cobs]; try discriminate. intros H. exists i. auto. Qed.

  Lemma cu_at_result cu r (fwd : bool) q :
    cu_slice cu = sl -> cobs lv q = r -> (r = None -> q = if fwd then EOI else SOI) ->
    cu_at (cur_at cu r fwd) q.
  Proof.
    intros Hsl Hr Hn. unfold cu_at, cur_at. cbn [cu_slice cu_stale cu_cur cu_fwd].
    split; [exact Hsl|]. split; [reflexivity|].
    destruct r as [kv|]; [apply cobs_at_some; exact Hr|apply Hn; reflexivity].
  Qed.

  Lemma first_at cu : cu_slice cu = sl -> cu_at (c_first c m cu) (cfirst lv).
  Proof.
    intros Hsl. unfold c_first. rewrite Hsl. apply cu_at_result; [exact Hsl| |].
    - destruct lv; reflexivity.
    - destruct lv; [reflexivity|discriminate].
  Qed.

  Lemma last_at cu : cu_slice cu = sl -> cu_at (c_last c m cu) (clast lv).
  Proof.
    intros Hsl. unfold c_last. rewrite Hsl. apply cu_at_result; [exact Hsl| |].
    - rewrite find_last_b_eq. symmetry. apply scan_last.
    - rewrite find_last_b_eq, scan_last. unfold clast. destruct lv as [|x r] eqn:E; [reflexivity|].
      cbn [length cobs]. intros H. exfalso. apply nth_error_None in H. cbn [length] in H. lia.
  Qed.

  Lemma key_ge_b k : forall x : bytes * bytes, key_ge c k x = ge_b (cmp c) k x.
  Proof. intros x. unfold key_ge, ge_b, ltb. destruct (cmp c (fst x) k); reflexivity. Qed.

  Lemma seek_at cu k : cu_slice cu = sl -> cu_at (c_seek c m cu k) (find_ge (cmp c) k lv 0).
  Proof.
    intros Hsl. unfold c_seek, s_find_ge. rewrite Hsl.
    assert (E : find (key_ge c k) lv = cobs lv (find_ge (cmp c) k lv 0)).
    { rewrite <- (scan_seek (cmp c) k lv). apply find_ext'. apply key_ge_b. }
    apply cu_at_result; [exact Hsl|symmetry; exact E|].
    rewrite E. intros H. destruct (find_ge (cmp c) k lv 0) as [|j|] eqn:Ef; [|exfalso|reflexivity].
    - exfalso. exact (find_ge_not_soi (cmp c) k lv 0 Ef).
    - pose proof (find_ge_ok (cmp c) k lv 0 j Ef) as Hj. cbn [cobs] in H. apply nth_error_None in H. lia.
  Qed.

  (* Next on the reference cursor *)
  Lemma next_at cu q : cu_at cu q -> exists cu', c_next c m cu = Some cu' /\ cu_at cu' (cstep (cmp c) lv q MNext).
  Proof.
    intros (Hsl & Hst & Hcur). unfold c_next. destruct (cu_cur cu) as [[k v]|] eqn:Ecur.
    - destruct Hcur as (i & -> & Hi). rewrite Hst. eexists. split; [reflexivity|].
      rewrite Hsl. unfold s_find_gt.
      assert (E : find (key_gt c k) lv = nth_error lv (S i)).
      { rewrite <- (scan_next (cmp c) fok lv lv_sorted i (k, v) Hi). apply find_ext'. intros y.
        unfold key_gt, gt_b, ltb. cbn [fst]. reflexivity. }
      rewrite E. cbn [cstep]. apply cu_at_result; [exact Hsl| |].
      + destruct (Nat.ltb (S i) (length lv)) eqn:El; cbn [cobs]; [reflexivity|].
        apply Nat.ltb_ge in El. symmetry. apply nth_error_None. exact El.
      + intros Hn. apply nth_error_None in Hn.
        destruct (Nat.ltb (S i) (length lv)) eqn:El; [apply Nat.ltb_lt in El; lia|reflexivity].
    - eexists. split; [reflexivity|]. subst q. destruct (cu_fwd cu) eqn:Ef; cbn [negb cstep].
      + unfold cu_at. rewrite Ecur, Ef. auto.
      + apply first_at. exact Hsl.
  Qed.

  Lemma step_MR x q mv : MR x q -> MR (stepf x mv) (cstep (cmp c) lv q mv).
  Proof.
    intros (Hd & Hb & cu & HR & Hsl & Hst & Hcur). unfold mc_step. cbv zeta. rewrite Hd.
    assert (fin : forall cu' r, move_ok c d L (mc_it x) cu cu' r -> cu_at cu' (cstep (cmp c) lv q mv) ->
              MR match r with Ok (it', _) => mkMC d it' (mc_bad x) | _ => mkMC d (mc_it x) true end (cstep (cmp c) lv q mv)).
    { intros cu' r (it' & ret & -> & HR' & _) Hat. split; [reflexivity|]. split; [exact Hb|]. exists cu'. split; assumption. }
    destruct mv as [| |k| |]; cbn [cstep].
    - apply (fin _ _ (it_first_ok c ok mp mpok d A L I _ cu HR)). apply first_at. exact Hsl.
    - apply (fin _ _ (it_last_ok c ok mp mpok d A L I _ cu HR)). apply last_at. exact Hsl.
    - apply (fin _ _ (it_seek_ok c ok mp mpok d A L I _ cu k HR)). apply seek_at. exact Hsl.
    - destruct (next_at cu q (conj Hsl (conj Hst Hcur))) as (cu' & En & Hat).
      exact (fin _ _ (it_next_ok c ok mp mpok d A L I _ cu cu' HR En) Hat).
    -       apply (fin _ _ (it_prev_ok c ok mp mpok d A L I _ cu HR)).
      unfold c_prev. destruct (cu_cur cu) as [[k v]|] eqn:Ecur.
      + destruct Hcur as (i & -> & Hi). rewrite Hsl. unfold s_find_lt.
        assert (E : find_last (key_lt c k) lv = match i with O => None | S j => nth_error lv j end).
        { rewrite find_last_b_eq. rewrite <- (scan_prev (cmp c) fok lv lv_sorted i (k, v) Hi).
          apply find_last_b_ext. intros y. unfold key_lt, lt_b, Order.ltb. cbn [fst]. reflexivity. }
        rewrite E. cbn [cstep]. apply cu_at_result; [exact Hsl| |].
        * destruct i; reflexivity.
        * destruct i as [|j]; [reflexivity|]. intros Hn. apply nth_error_None in Hn.
          apply ListLemmas.nth_error_Some_lt in Hi. lia.
      + subst q. destruct (cu_fwd cu) eqn:Ef; cbn [cstep].
        * apply last_at. exact Hsl.
        * unfold cu_at. rewrite Ecur, Ef. auto.
  Qed.

  Lemma MR_obs x q : MR x q -> mc_obs x = cobs lv q.
  Proof.
    intros (_ & _ & cu & (_ & _ & HR) & _ & _ & Hcur). unfold mc_obs, it_valid.
    destruct (cu_cur cu) as [[k v]|].
    - destruct HR as (Hn0 & Hk & Hv & _). destruct Hcur as (i & -> & Hi).
      replace (it_node (mc_it x) =? 0)%N with false by (symmetry; apply N.eqb_neq; exact Hn0).
      cbn [negb]. rewrite Hk, Hv. cbn [cobs]. symmetry. exact Hi.
    - destruct HR as (Hn0 & _). rewrite Hn0. cbn. subst q. destruct (cu_fwd cu); reflexivity.
  Qed.

  Lemma MR_new : MR (mc_new d sl) SOI.
  Proof.
    split; [reflexivity|]. split; [reflexivity|]. exists (new_cursor sl). split.
    - unfold Rit, new_cursor, mc_new, new_iter. cbn. auto.
    - unfold cu_at, new_cursor. cbn. auto.
  Qed.

  Lemma MR_run ms : forall x q, MR x q -> MR (bb_run stepf x ms) (crun (cmp c) lv q ms).
  Proof.
    induction ms as [|mv ms IH]; intros x q H; [exact H|]. cbn [bb_run crun fold_left].
    apply IH. apply step_MR. exact H.
  Qed.
End MemChild.

Section MemChildDB.
  Variable c : comparer.
  Hypothesis ok : comparer_ok c.
  Variable p : kparams.
  Hypothesis seek_val : (keyTypeSeek p <= keyTypeVal p)%N.
  Variable mp : mparams.
  Hypothesis mpok : mparams_ok mp.

  Local Notation ic := (ibc c).

  (* DB.NewIterator(slice) of a memdb satisfying C14's invariant = the cursor over its pairs in the slice *)
  Theorem mem_child_refines d sl : mem_ok c p mp d ->
    refines (cmp ic) (mc_step c mp) mc_obs (mc_new d sl) (sl_pairs ic sl (mem_pairs mp d)).
  Proof.
    intros [(A & L & I) _].
    assert (Ep : mem_pairs mp d = MemInv.abs d L) by exact (mem_pairs_abs c p seek_val mp mpok d A L I).
    rewrite Ep, <- (vis_sl_pairs ic (ibc_ok c ok)).
    apply (refines_by_sim (cmp ic) (mc_step c mp) mc_obs _ (MR c d L sl)).
    - intros x q H. exact (MR_obs c d L sl x q H).
    - intros x q mv H. exact (step_MR c ok mp mpok d A L I sl x q mv H).
    - apply MR_new.
  Qed.

  (* ... and no call of the array model panics or runs out of fuel, whatever the calls are *)
  Theorem mem_child_total d sl ms : mem_ok c p mp d ->
    mc_bad (bb_run (mc_step c mp) (mc_new d sl) ms) = false.
  Proof.
    intros [(A & L & I) _].
    pose proof (MR_run c ok mp mpok d A L I sl ms (mc_new d sl) SOI (MR_new c d L sl)) as (_ & H & _).
    exact H.
  Qed.
End MemChildDB.

Section TabChild.
  Variable uc : comparer.                (* the user comparer; tables are ordered by the internal-key comparer over it *)
  Local Notation c := (ibc uc).
  Variable rd : treader.
  Local Notation tstep := (tc_step uc).

  Lemma cop_of_move_of o : cop_of (move_of o) = o.
  Proof. destruct o; reflexivity. Qed.

  Lemma tstep_inr t ok0 o okr t' : ti_step c rd t o = (okr, t') ->
    tstep (mkTC rd (inr t) ok0) (move_of o) = mkTC rd (inr t') okr.
  Proof. intros E. unfold tc_step. cbn [tc_it tc_rd]. rewrite cop_of_move_of, E. reflexivity. Qed.

  Lemma ti_run_obs_list ops : forall t ok0,
    obs_list tstep tc_obs (mkTC rd (inr t) ok0) (map move_of ops) = fst (ti_run c rd t ops).
  Proof.
    induction ops as [|o ops IH]; intros t ok0; [reflexivity|].
    cbn [map obs_list ti_run].
    destruct (ti_step c rd t o) as [okr t'] eqn:Es. rewrite (tstep_inr t ok0 o okr t' Es).
    specialize (IH t' okr). destruct (ti_run c rd t' ops) as [lo tf] eqn:Er. cbn [fst] in *.
    rewrite IH. unfold tc_obs. cbn [tc_ok tc_it]. reflexivity.
  Qed.

  Lemma tab_refines_of_runs t (l : list (bytes * bytes)) :
    (forall ops, fst (ti_run c rd t ops) = Base.Cursor.c_run c l Base.Cursor.CSOI ops) ->
    refines (cmp c) tstep tc_obs (mkTC rd (inr t) false) l.
  Proof.
    intros H. apply (refines_of_runs c); [reflexivity|]. intros ops. rewrite ti_run_obs_list. apply H.
  Qed.
End TabChild.

Section TabChildDB.
  Variable c : comparer.
  Hypothesis ok : comparer_ok c.
  Variable tp : tparams.
  Variable crc : bytes -> N.
  Variable decompress : bytes -> option bytes.
  Variable fname : option bytes.
  Variable ufc : bytes -> N -> bytes -> bool.
  Variable verify : bool.
  Variable strict : bool.

  Local Notation ic := (ibc c).
  Local Notation reader := (tf_reader c tp crc decompress fname ufc verify).

  (* tOps.newIterator(f, slice, ro) on a file whose reader is a well-formed table = the cursor over the
     table's pairs in the slice *)
  Theorem tab_child_refines f bl se hs sl : table_wf ic (reader f) bl se hs ->
    refines (cmp ic) (tc_step c) tc_obs (tc_new c tp crc decompress fname ufc verify strict f sl)
            (sl_pairs ic sl (tkvs bl)).
  Proof.
    intros wf. unfold tc_new.
    assert (E : exists t, new_titer ic (reader f) sl strict = inr t /\
                  forall ops, fst (ti_run ic (reader f) t ops) =
                              Base.Cursor.c_run ic (sl_pairs ic sl (tkvs bl)) Base.Cursor.CSOI ops).
    { destruct sl as [[a b]|]; cbn [sl_pairs].
      - apply (table_iter_range_refines ic (reader f) bl se hs a b strict (ibc_ok c ok) wf).
      - apply (table_iter_refines ic (reader f) bl se hs strict (ibc_ok c ok) wf). }
    destruct E as (t & -> & Hr).
    exact (tab_refines_of_runs c (reader f) t _ Hr).
  Qed.
End TabChildDB.
