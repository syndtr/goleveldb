(* Lsm/WritePathHistory.v — the capstone of the byte-level write path: every finite run of byte-level steps (writes of
   batches, rotations, flushes, table compactions with any picker choice / seed / failure history, trivial moves, committed
   transactions, snapshot acquisitions and releases) from the empty DB keeps the byte state well-formed, and DB.Get computed on the BYTES answers
   like the plain map driven by the written batches; a live snapshot keeps reading the map of the instant it was taken.
   Composition of the per-step theorems (WritePathSteps.v) with the history machine (History.v / HistoryProofs.v) and the
   byte-level read path (ReadPathProofs.v). *)
From GL Require Import Codec.TableSizes Codec.Batch Lsm.History Lsm.HistoryProofs Lsm.ReorgProofs Lsm.WfLsm
  Lsm.Builder Lsm.BuilderCuts Lsm.ReadPath Lsm.ReadPathProofs Lsm.BatchWriteProofs Lsm.WritePath Lsm.WritePathMem
  Lsm.WritePathSteps Lsm.WritePathTxn.
From Coq Require Import Lia Sorted.
Open Scope N_scope.

Section HistoryBytes.
  Variable c : comparer.
  Hypothesis ok : comparer_ok c.
  Variable p : kparams.
  Hypothesis pok : kparams_ok p.
  Hypothesis seek_val : keyTypeSeek p <= keyTypeVal p.
  Variable mp : MemDB.mparams.
  Hypothesis mpok : MemDB.mparams_ok mp.
  Variable tp : tparams.
  Hypothesis tp_ok : tparams_ok tp.
  Variable crc : bytes -> N.
  Hypothesis crc_bound : forall b, crc b < 2 ^ 32.
  Variable compress : bytes -> bytes.
  Variable decompress : bytes -> option bytes.
  Hypothesis codec_ok : forall x, decompress (compress x) = Some x.
  Hypothesis compress_ne : forall x, compress x <> [].
  Variable fname : option bytes.
  Variable ufc : bytes -> N -> bytes -> bool.
  Variable verify : bool.
  Variable o : wopts.
  Hypothesis ri_pos : 1 <= wo_ri o.

  Local Notation ri := (wo_ri o).
  Local Notation wfb := (wf_bstate c p mp tp crc decompress fname ufc verify ri).
  Local Notation absS := (ReadPath.abs c mp tp crc decompress fname ufc verify ri).
  Local Notation av := (aversion c tp crc decompress fname ufc verify o).
  Local Notation getb := (db_get_bytes c p mp tp crc decompress fname ufc verify).
  Local Notation bfull := (bfull c p mp tp crc decompress fname ufc verify o).
  Local Notation step := (bstep c p mp tp crc compress decompress fname ufc verify o).
  Local Notation run := (brun c p mp tp crc compress decompress fname ufc verify o).
  Local Notation fsz st := (file_size (files_of st)).
  Local Notation blen := (bytes_len c p tp crc compress o).
  Local Notation sizes_ok := (write_sizes_ok c p tp crc compress o).
  Local Notation tfilt := (table_filter_ok c p tp crc compress decompress fname ufc verify o).
  Local Notation allE w := (all_entries (absS (ws_bs w))).

  (* the side conditions of a step: everything that is not implied by the step succeeding *)
  Definition bop_ok (w : wstate) (op : bop) : Prop :=
    match op with
    | BWrite recs hs =>
        Forall (rec_wf p) recs /\ ws_seq w + N.of_nat (length recs) < keyMaxSeq p /\ heights_okl mp hs /\
        lenN (enc_recs p recs) < 2 ^ 63
    | BRotate => True
    | BFlush num =>
        (forall f, In f (files_of (ws_bs w)) -> tf_num f <> num) /\
        (forall d, bs_frozen (ws_bs w) = Some d -> mem_pairs mp d <> [] -> sizes_ok (mem_pairs mp d) = true) /\
        (forall d, bs_frozen (ws_bs w) = Some d -> tfilt (mem_pairs mp d))
    | BCompact lvl seed os nums =>
        NoDup nums /\ (forall n f, In n nums -> In f (files_of (ws_bs w)) -> tf_num f <> n) /\
        (forall cm s',
           b_pick c tp crc decompress fname ufc verify o (ws_bs w) lvl seed = POk cm ->
           transact c p (fsz (ws_bs w)) (c_gp cm) (wo_gpOverlaps o lvl) (skipn (lvl + 2) (av (ws_bs w))) (min_seq w)
                    (wo_strict o) (wo_tableSize o (S lvl)) blen os
                    (map IGood (merge_inputs c (c_t0 cm ++ c_t1 cm))) (bst0 (skipn (lvl + 2) (av (ws_bs w)))) = (s', TDone) ->
           Forall (fun ch => sizes_ok (chunk_kvs ch) = true /\ tfilt (chunk_kvs ch)) (fin s'))
    | BMove _ _ => True
    | BTxn recs hs num =>
        Forall (rec_wf p) recs /\ ws_seq w + N.of_nat (length recs) < keyMaxSeq p /\ heights_okl mp hs /\
        lenN (enc_recs p recs) < 2 ^ 63 /\
        (forall f, In f (files_of (ws_bs w)) -> tf_num f <> num) /\
        (forall d0 d' hs', MemDB.mdb_new mp = MemDB.Ok d0 ->
           batch_putmem p (ibc c) mp (batch_of p recs) (ws_seq w + 1) d0 hs = PmOk d' hs' -> mem_pairs mp d' <> [] ->
           sizes_ok (mem_pairs mp d') = true /\ tfilt (mem_pairs mp d'))
    | BSnap => True
    | BRelease _ => True
    end.

  Fixpoint bops_ok (w : wstate) (ops : list bop) : Prop :=
    match ops with
    | [] => True
    | op :: r => bop_ok w op /\ match step w op with Some w' => bops_ok w' r | None => True end
    end.

  (* the plain map driven by the written batches *)
  Definition wmap (ops : list bop) : amap :=
    fold_left (fun m op => fold_left (a_apply c p) (hop_writes p op) m) ops [].

  (* the history operations a run stands for: a write is an HWrite followed by the re-listing of the stored collection
     (the memdb keeps its entries sorted), every reorganisation is an HReorg to the stored collection after it *)
  Definition hop_of (op : bop) (w' : wstate) : list hop :=
    match op with
    | BWrite recs _ | BTxn recs _ _ => [HWrite (map (norm_rec p) recs); HReorg (allE w')]
    | BSnap => [HSnap]
    | BRelease i => [HRelease i]
    | _ => [HReorg (allE w')]
    end.

  Fixpoint hops_run (w : wstate) (ops : list bop) : list hop :=
    match ops with
    | [] => []
    | op :: r => match step w op with Some w' => hop_of op w' ++ hops_run w' r | None => [] end
    end.

  Definition snaps_ok (seq : N) (snaps : list N) : Prop := StronglySorted N.le snaps /\ Forall (fun s => s <= seq) snaps.

  Record winv (w : wstate) (hs : list hop) : Prop := {
    wi_b : bfull (ws_bs w);
    wi_mem : exists d, bs_mem (ws_bs w) = Some d;
    wi_hok : hops_ok c p h_init hs;
    wi_store : h_store (hrun hs) = allE w;
    wi_seq : h_seq (hrun hs) = ws_seq w;
    wi_snaps : h_snaps (hrun hs) = ws_snaps w;
    wi_bound : forall x, In x (allE w) -> e_seq x <= ws_seq w;
    wi_max : ws_seq w < keyMaxSeq p;
    wi_sn : snaps_ok (ws_seq w) (ws_snaps w)
  }.

  Lemma hrun_app a b : hrun (a ++ b) = fold_left hstep b (hrun a).
  Proof. unfold hrun. apply fold_left_app. Qed.

  Lemma hops_ok_app' h a b : hops_ok c p h a -> hops_ok c p (fold_left hstep a h) b -> hops_ok c p h (a ++ b).
  Proof.
    revert h. induction a as [|x a IH]; intros h Ha Hb; [exact Hb|].
    cbn [app hops_ok fold_left] in *. destruct Ha as [H1 H2]. split; [exact H1|apply IH; assumption].
  Qed.

  Lemma min_seq_le w s : snaps_ok (ws_seq w) (ws_snaps w) -> (s = ws_seq w \/ In s (ws_snaps w)) -> min_seq w <= s.
  Proof.
    intros [Ss Sb] Hs. unfold min_seq. destruct (ws_snaps w) as [|s0 r]; cbn [hd].
    - destruct Hs as [->|[]]. lia.
    - inversion Ss as [|? ? _ Hall]; subst. inversion Sb as [|? ? Hb0 _]; subst.
      destruct Hs as [->|[<-|Hs]]; [exact Hb0|lia|]. rewrite Forall_forall in Hall. apply Hall. exact Hs.
  Qed.

  Lemma remove_nth_sorted i : forall l, StronglySorted N.le l -> StronglySorted N.le (remove_nth i l).
  Proof.
    induction i as [|i IH]; intros [|x l] H; cbn [remove_nth]; try exact H.
    - inversion H; assumption.
    - inversion H as [|? ? Hs Hall]; subst. constructor; [apply IH; exact Hs|].
      apply Forall_forall. intros y Hy. rewrite Forall_forall in Hall. apply Hall. apply (remove_nth_in _ _ _ Hy).
  Qed.

  (* an admissible reorganisation that stores nothing new *)
  Lemma winv_reorg w hs b' :
    winv w hs -> bfull b' -> (exists d, bs_mem b' = Some d) ->
    reorg_ok c p (hrun hs) (all_entries (absS b')) -> (forall x, In x (all_entries (absS b')) -> In x (allE w)) ->
    winv (mkWS b' (ws_seq w) (ws_snaps w)) (hs ++ [HReorg (all_entries (absS b'))]).
  Proof.
    intros [B M Hok Hst Hsq Hsn Hbd Hmx Hso] B' M' R Hincl.
    constructor; cbn [ws_bs ws_seq ws_snaps]; try assumption.
    - apply hops_ok_app'; [exact Hok|]. cbn [fold_left hops_ok hop_ok]. fold (hrun hs). split; [exact R|exact I].
    - rewrite hrun_app. reflexivity.
    - rewrite hrun_app. cbn [fold_left hstep h_seq]. exact Hsq.
    - rewrite hrun_app. cbn [fold_left hstep h_snaps]. exact Hsn.
    - intros x Hx. apply Hbd. apply Hincl. exact Hx.
  Qed.

  (* ... in particular one that only re-lists (or moves) the stored entries *)
  Lemma winv_rearrange w hs b' :
    winv w hs -> bfull b' -> (exists d, bs_mem b' = Some d) ->
    same_elems (allE w) (all_entries (absS b')) ->
    winv (mkWS b' (ws_seq w) (ws_snaps w)) (hs ++ [HReorg (all_entries (absS b'))]).
  Proof.
    intros Inv B' M' SE. apply (winv_reorg w hs b' Inv B' M'); [|intros x Hx; apply SE; exact Hx].
    apply (rearrangement_ok c ok p); rewrite (wi_store _ _ Inv); [exact (bf_uniq _ _ _ _ _ _ _ _ _ _ _ (wi_b _ _ Inv))|exact SE].
  Qed.

  (* a batch written at db.seq+1.., by whichever path, followed by the re-listing of the stored collection *)
  Lemma winv_write w hs b' recs :
    winv w hs -> Forall (rec_wf p) recs -> ws_seq w + N.of_nat (length recs) < keyMaxSeq p ->
    bfull b' -> (exists d, bs_mem b' = Some d) ->
    same_elems (allE w ++ stamp (ws_seq w) (map (norm_rec p) recs)) (all_entries (absS b')) ->
    winv (mkWS b' (ws_seq w + N.of_nat (length recs)) (ws_snaps w))
         (hs ++ [HWrite (map (norm_rec p) recs); HReorg (all_entries (absS b'))]).
  Proof.
    intros [B M Hok Hst Hsq Hsn Hbd Hmx Hso] Hrw Hsq' B' M' SE.
    set (rs := map (norm_rec p) recs) in *.
    assert (Elen : length rs = length recs) by (unfold rs; apply map_length).
    pose proof (uniq_in_app_stamp _ (ws_seq w) rs (bf_uniq _ _ _ _ _ _ _ _ _ _ _ B) Hbd) as Ust.
    set (h1 := hstep (hrun hs) (HWrite rs)).
    assert (R : reorg_ok c p h1 (all_entries (absS b'))).
    { apply (rearrangement_ok c ok p); unfold h1; cbn [hstep h_store]; rewrite Hst, Hsq; assumption. }
    constructor; cbn [ws_bs ws_seq ws_snaps].
    - exact B'.
    - exact M'.
    - apply hops_ok_app'; [exact Hok|]. cbn [fold_left hops_ok hop_ok]. fold (hrun hs). fold h1.
      split; [|split; [exact R|exact I]].
      apply Forall_forall. intros r Hr. unfold rs in Hr. apply in_map_iff in Hr as ([[kt k0] v0] & <- & Hr0).
      rewrite Forall_forall in Hrw. destruct (Hrw _ Hr0) as [Hk _]. cbn [fst] in Hk.
      unfold norm_rec. destruct pok as (P1 & P2 & _). destruct (kt =? keyTypeVal p); cbn [fst]; destruct Hk as [-> | ->]; assumption.
    - rewrite hrun_app. reflexivity.
    - rewrite hrun_app. cbn [fold_left hstep h_seq]. rewrite Hsq. f_equal. f_equal. exact Elen.
    - rewrite hrun_app. cbn [fold_left hstep h_snaps]. exact Hsn.
    - intros x Hx. apply SE in Hx. apply in_app_or in Hx as [Hx|Hx]; [specialize (Hbd x Hx); lia|].
      apply stamp_seq in Hx as [_ Hx]. eapply N.le_trans; [exact Hx|]. apply N.eq_le_incl. f_equal. f_equal. exact Elen.
    - lia.
    - destruct Hso as [S1 S2]. split; [exact S1|]. eapply Forall_impl; [|exact S2]. cbn beta. intros; lia.
  Qed.

  Lemma write_outputs_len nums chunks outs :
    write_outputs c p tp crc compress o nums chunks = Some outs -> length nums = length chunks.
  Proof.
    revert chunks outs. induction nums as [|n nums IH]; intros [|ch chunks] outs H; cbn [write_outputs] in H; try discriminate; [reflexivity|].
    destruct (write_table c p tp crc compress o n (chunk_kvs ch)); [|discriminate].
    destruct (write_outputs c p tp crc compress o nums chunks) as [l|] eqn:E; [|discriminate].
    cbn [length]. f_equal. apply (IH chunks l E).
  Qed.

  Theorem step_inv w hs op w' : winv w hs -> step w op = Some w' -> bop_ok w op -> winv w' (hs ++ hop_of op w').
  Proof.
    intros Inv Est Hop. pose proof Inv as [B M Hok Hst Hsq Hsn Hbd Hmx Hso]. destruct M as (d & Hd).
    destruct op as [recs hts| |num|lvl seed os nums|lvl seed|recs hts num| |i]; cbn [bstep bop_ok hop_of] in *; unfold with_bs in *.
    - (* a write *)
      destruct Hop as (Hrw & Hsq' & Hhs & Hlen).
      destruct (putmem_is_history_write c ok p pok seek_val mp mpok d recs (ws_seq w) hts) as (d' & hs' & Epm & Md' & _ & Hin);
        try assumption; try lia.
      { apply (wb_mem _ _ _ _ _ _ _ _ _ _ _ (bf_wf _ _ _ _ _ _ _ _ _ _ _ B)). exact Hd. }
      { intros x Hx. apply Hbd. unfold all_entries. apply in_or_app. left. cbn [ReadPath.abs st_mem]. rewrite Hd. exact Hx. }
      unfold b_write in Est. rewrite Hd, Epm in Est. cbn [option_map] in Est. injection Est as <-.
      destruct (write_wf c ok p pok seek_val mp mpok tp crc decompress fname ufc verify ri (ws_bs w) d d' (map (norm_rec p) recs) (ws_seq w)
                  (bf_wf _ _ _ _ _ _ _ _ _ _ _ B) Hd Md' Hbd Hin) as [W' SE].
      fold (with_mem (ws_bs w) d') in *.
      apply (winv_write w hs _ recs Inv Hrw Hsq'); [|exists d'; reflexivity|exact SE].
      constructor; [exact W'|exact (bf_lsm _ _ _ _ _ _ _ _ _ _ _ B)|].
      apply (uniq_in_same _ _ SE). apply uniq_in_app_stamp; [exact (bf_uniq _ _ _ _ _ _ _ _ _ _ _ B)|exact Hbd].
    - (* rotation *)
      destruct (b_rotate mp (ws_bs w)) as [b'|] eqn:Er; [|discriminate]. cbn [option_map] in Est. injection Est as <-.
      assert (Hfz : bs_frozen (ws_bs w) = None).
      { unfold b_rotate in Er. rewrite Hd in Er. destruct (bs_frozen (ws_bs w)); [discriminate|reflexivity]. }
      destruct (rotate_step c ok p pok seek_val mp mpok tp crc decompress fname ufc verify o ri_pos (ws_bs w) d B Hd Hfz)
        as (st' & d0 & Er' & B' & Em' & _ & _ & _ & _ & _ & Eall).
      rewrite Er in Er'. injection Er' as <-.
      apply (winv_rearrange w hs b' Inv B'); [exists d0; exact Em'|]. rewrite Eall. intros x; reflexivity.
    - (* flush *)
      destruct Hop as (Hfresh & Hsz & Hfl).
      destruct (b_flush c p mp tp crc compress decompress fname ufc verify o num (ws_bs w)) as [b'|] eqn:Ef; [|discriminate].
      cbn [option_map] in Est. injection Est as <-.
      destruct (bs_frozen (ws_bs w)) as [df|] eqn:Hfz; [|unfold b_flush in Ef; rewrite Hfz in Ef; discriminate].
      destruct (flush_step c ok p pok seek_val mp mpok tp tp_ok crc crc_bound compress decompress codec_ok compress_ne fname ufc verify o ri_pos
                  (ws_bs w) df num B Hfz Hfresh) as (st' & Ef' & B' & SE & Em' & _).
      { intros x Hx. specialize (Hbd x Hx). lia. }
      { apply Hsz. reflexivity. }
      { destruct (Hfl df eq_refl) as [Hn|Hf]; [left; exact Hn|right; intros f Hw; apply (Hf num f Hw)]. }
      rewrite Ef in Ef'. injection Ef' as <-.
      apply (winv_rearrange w hs b' Inv B'); [exists d; rewrite Em'; exact Hd|exact SE].
    - (* table compaction *)
      destruct Hop as (Hnd & Hfresh & Hsz).
      destruct (b_compact c p tp crc compress decompress fname ufc verify o lvl seed os nums (min_seq w) (ws_bs w)) as [b'|] eqn:Ec; [|discriminate].
      cbn [option_map] in Est. injection Est as <-.
      (* what the success of the step tells *)
      assert (Hseed : seed_tables (av (ws_bs w)) lvl seed <> []).
      { intros Q. unfold b_compact, b_pick, new_compaction, expand in Ec. rewrite Q in Ec. cbn in Ec. discriminate. }
      assert (Hms : min_seq w < keyMaxSeq p).
      { pose proof (min_seq_le w (ws_seq w) Hso (or_introl eq_refl)). lia. }
      destruct (compact_step c ok p pok seek_val mp mpok tp tp_ok crc crc_bound compress decompress codec_ok compress_ne fname ufc verify o ri_pos
                  (ws_bs w) lvl seed os nums (min_seq w) B Hseed Hms Hnd Hfresh) as (cm & Ecm & Hstep).
      pose proof Ec as Ec0. unfold b_compact in Ec0. rewrite Ecm in Ec0.
      destruct (transact c p (fsz (ws_bs w)) (c_gp cm) (wo_gpOverlaps o lvl) (skipn (lvl + 2) (av (ws_bs w))) (min_seq w) (wo_strict o)
                  (wo_tableSize o (S lvl)) blen os (map IGood (merge_inputs c (c_t0 cm ++ c_t1 cm)))
                  (bst0 (skipn (lvl + 2) (av (ws_bs w))))) as [s' r] eqn:Etr.
      destruct r; try discriminate.
      destruct (write_outputs c p tp crc compress o nums (fin_of s')) as [outs|] eqn:Ewo; [|discriminate].
      pose proof (write_outputs_len _ _ _ Ewo) as Hlen.
      destruct (Hstep s' Etr Hlen (Hsz cm s' Ecm Etr)) as (st' & Ec' & B' & Em' & Efz' & _ & _ & Hincl & Hreads).
      rewrite Ec in Ec'. injection Ec' as <-.
      apply (winv_reorg w hs b' Inv B'); [exists d; rewrite Em'; exact Hd| |exact Hincl].
      split.
      + intros x Hx. rewrite Hst. apply Hincl. exact Hx.
      + intros k s Hps. rewrite Hst. apply Hreads. apply (min_seq_le w s Hso).
        destruct Hps as [->|Hin]; [left; exact Hsq|right; rewrite <- Hsn; exact Hin].
    - (* trivial move *)
      destruct (b_trivial_move c tp crc decompress fname ufc verify o lvl seed (ws_bs w)) as [b'|] eqn:Em; [|discriminate].
      cbn [option_map] in Est. injection Est as <-.
      assert (Hseed : seed_tables (av (ws_bs w)) lvl seed <> []).
      { intros Q. unfold b_trivial_move, b_pick, new_compaction, expand in Em. rewrite Q in Em. cbn in Em. discriminate. }
      destruct (move_step c ok p pok seek_val mp mpok tp crc decompress fname ufc verify o ri_pos (ws_bs w) lvl seed B Hseed) as (cm & Ecm & Hstep).
      pose proof Em as Em0. unfold b_trivial_move in Em0. rewrite Ecm in Em0.
      destruct (trivial (fsz (ws_bs w)) cm (wo_gpOverlaps o lvl)) eqn:T; [|discriminate].
      destruct (Hstep eq_refl) as (st' & Em' & B' & Emem & _ & _ & SE).
      rewrite Em in Em'. injection Em' as <-.
      apply (winv_rearrange w hs b' Inv B'); [exists d; rewrite Emem; exact Hd|exact SE].
    - (* a committed transaction *)
      destruct Hop as (Hrw & Hsq' & Hhs & Hlen & Hfresh & Hsz).
      destruct (b_txn_commit c p mp tp crc compress decompress fname ufc verify o recs hts num (ws_seq w) (ws_bs w)) as [b'|] eqn:Et; [|discriminate].
      cbn [option_map] in Est. injection Est as <-.
      assert (Hfz : bs_frozen (ws_bs w) = None).
      { unfold b_txn_commit in Et. destruct (negb (mem_is_empty c mp (bs_mem (ws_bs w)))); [discriminate|].
        destruct (bs_frozen (ws_bs w)); [discriminate|reflexivity]. }
      assert (Hme : mem_is_empty c mp (bs_mem (ws_bs w)) = true).
      { unfold b_txn_commit in Et. destruct (mem_is_empty c mp (bs_mem (ws_bs w))); [reflexivity|discriminate]. }
      destruct (txn_step c ok p pok seek_val mp mpok tp tp_ok crc crc_bound compress decompress codec_ok compress_ne fname ufc verify o ri_pos
                  (ws_bs w) recs hts num (ws_seq w) B Hfz Hme Hbd Hrw ltac:(lia) Hhs Hlen Hfresh Hsz) as (st' & Et' & B' & Em' & _ & SE).
      rewrite Et in Et'. injection Et' as <-.
      apply (winv_write w hs b' recs Inv Hrw Hsq' B'); [exists d; rewrite Em'; exact Hd|exact SE].
    - (* GetSnapshot *)
      injection Est as <-. constructor; cbn [ws_bs ws_seq ws_snaps]; try assumption.
      + exists d. exact Hd.
      + apply hops_ok_app'; [exact Hok|]. cbn [fold_left hops_ok hop_ok]. auto.
      + rewrite hrun_app. cbn [fold_left hstep h_store]. exact Hst.
      + rewrite hrun_app. cbn [fold_left hstep h_seq]. exact Hsq.
      + rewrite hrun_app. cbn [fold_left hstep h_snaps]. rewrite Hsn, Hsq. reflexivity.
      + destruct Hso as [S1 S2]. split.
        * clear - S1 S2. induction (ws_snaps w) as [|s0 r IH]; cbn [app]; [constructor; constructor|].
          inversion S1 as [|? ? S1' Ha]; subst. inversion S2 as [|? ? Hb S2']; subst.
          constructor; [apply IH; assumption|]. apply Forall_app. split; [exact Ha|constructor; [exact Hb|constructor]].
        * apply Forall_app. split; [exact S2|constructor; [lia|constructor]].
    - (* Release *)
      injection Est as <-. constructor; cbn [ws_bs ws_seq ws_snaps]; try assumption.
      + exists d. exact Hd.
      + apply hops_ok_app'; [exact Hok|]. cbn [fold_left hops_ok hop_ok]. auto.
      + rewrite hrun_app. cbn [fold_left hstep h_store]. exact Hst.
      + rewrite hrun_app. cbn [fold_left hstep h_seq]. exact Hsq.
      + rewrite hrun_app. cbn [fold_left hstep h_snaps]. rewrite Hsn. reflexivity.
      + destruct Hso as [S1 S2]. split; [apply remove_nth_sorted; exact S1|].
        apply Forall_forall. intros s Hs. rewrite Forall_forall in S2. apply S2. apply (remove_nth_in _ _ _ Hs).
  Qed.

  Theorem run_inv : forall ops w hs w', winv w hs -> run w ops = Some w' -> bops_ok w ops -> winv w' (hs ++ hops_run w ops).
  Proof.
    induction ops as [|op ops IH]; intros w hs w' Inv Er Hok; cbn [brun bops_ok hops_run] in *.
    - injection Er as <-. rewrite app_nil_r. exact Inv.
    - destruct Hok as [Hop Hrest]. destruct (step w op) as [w1|] eqn:Es; [|discriminate].
      rewrite app_assoc. apply (IH w1 _ w'); [apply (step_inv w hs op w1 Inv Es Hop)|exact Er|exact Hrest].
  Qed.

  Lemma run_app : forall a b w w1, run w a = Some w1 -> run w (a ++ b) = run w1 b.
  Proof.
    induction a as [|x a IH]; intros b w w1 H; cbn [brun app] in *; [injection H as <-; reflexivity|].
    destruct (step w x) as [w2|]; [|discriminate]. apply IH. exact H.
  Qed.

  Lemma hops_run_app : forall a b w w1, run w a = Some w1 -> hops_run w (a ++ b) = hops_run w a ++ hops_run w1 b.
  Proof.
    induction a as [|x a IH]; intros b w w1 H; cbn [brun hops_run app] in *; [injection H as <-; reflexivity|].
    destruct (step w x) as [w2|]; [|discriminate]. rewrite <- app_assoc. f_equal. apply IH. exact H.
  Qed.

  Lemma bops_ok_app : forall a b w, bops_ok w (a ++ b) -> bops_ok w a.
  Proof.
    induction a as [|x a IH]; intros b w H; cbn [bops_ok app] in *; [exact I|].
    destruct H as [H1 H2]. split; [exact H1|]. destruct (step w x); [apply (IH b); exact H2|exact I].
  Qed.

  (* a run and its side conditions, established one step at a time *)
  Lemma run_ok_cons w op ops w1 w' :
    step w op = Some w1 -> bop_ok w op -> run w1 ops = Some w' /\ bops_ok w1 ops ->
    run w (op :: ops) = Some w' /\ bops_ok w (op :: ops).
  Proof. intros Es Hop [Er Hok]. cbn [brun bops_ok]. rewrite Es. auto. Qed.

  (* the plain map of the history operations of a run is the plain map of the written batches *)
  Lemma map_steps_run : forall ops w w' m, run w ops = Some w' ->
    fold_left (map_step c p) (hops_run w ops) m = fold_left (fun m op => fold_left (a_apply c p) (hop_writes p op) m) ops m.
  Proof.
    induction ops as [|op ops IH]; intros w w' m Er; cbn [brun hops_run fold_left] in *; [reflexivity|].
    destruct (step w op) as [w1|] eqn:Es; [|discriminate]. rewrite fold_left_app, (IH w1 w' _ Er). f_equal.
    destruct op; reflexivity.
  Qed.

  Lemma map_of_run ops w w' : run w ops = Some w' -> map_of c p (hops_run w ops) = wmap ops.
  Proof. intros Er. unfold map_of, wmap. apply (map_steps_run ops w w' [] Er). Qed.

  Lemma wf_lsm_nil : wf_lsm c p [].
  Proof.
    assert (E : forall i, lv [] i = (@nil table)) by (intros [|i]; reflexivity).
    constructor.
    - intros i t Ht. rewrite E in Ht. destruct Ht.
    - intros i. rewrite E. constructor.
    - rewrite E. exact I.
    - intros i _. rewrite E. exact I.
    - intros i j _. rewrite E. intros a b [].
    - intros i j t t' Ht. rewrite E in Ht. destruct Ht.
  Qed.

  (* Open of an empty DB *)
  Theorem init_inv w0 : w_init mp = Some w0 -> winv w0 [].
  Proof.
    unfold w_init. destruct (mem_new_ok c p seek_val mp mpok) as (d0 & E0 & M0 & P0). rewrite E0. intros H. injection H as <-.
    set (b0 := mkBS (Some d0) None []).
    assert (Eall : all_entries (absS b0) = []).
    { unfold all_entries, all_tables. cbn [ReadPath.abs st_mem st_frozen st_aux st_levels b0 bs_mem bs_frozen bs_levels mem_entries map concat app].
      rewrite P0. reflexivity. }
    constructor; cbn [ws_bs ws_seq ws_snaps].
    - constructor.
      + constructor.
        * intros x Hx. cbn [b0 bs_mem] in Hx. injection Hx as <-. exact M0.
        * intros x Hx. discriminate.
        * constructor.
        * change (absS b0) with {| st_mem := mem_entries mp (Some d0); st_frozen := []; st_aux := []; st_levels := [] |}.
          cbn [mem_entries]. rewrite P0. cbn [map].
          apply (wf_state_parts c p [] [] [] I (Forall_nil _) I (Forall_nil _) wf_lsm_nil); [intros a b []|intros i a b []|intros i a b []].
      + exact wf_lsm_nil.
      + rewrite Eall. intros a b [].
    - exists d0. reflexivity.
    - exact I.
    - rewrite Eall. reflexivity.
    - reflexivity.
    - reflexivity.
    - rewrite Eall. intros x [].
    - destruct pok as (_ & _ & _ & _ & Hm & _). rewrite Hm. reflexivity.
    - split; constructor.
  Qed.

  Theorem history_bytes ops w0 w : w_init mp = Some w0 -> run w0 ops = Some w -> bops_ok w0 ops ->
    wfb (ws_bs w) /\
    (forall k, wf_bytes k -> bapi (getb (ws_bs w) k (ws_seq w)) = Some (a_get c k (wmap ops))) /\
    (forall ops1 ops2 w1 k, ops = ops1 ++ ops2 -> run w0 ops1 = Some w1 -> In (ws_seq w1) (ws_snaps w) -> wf_bytes k ->
       bapi (getb (ws_bs w) k (ws_seq w1)) = Some (a_get c k (wmap ops1))).
  Proof.
    intros Hi Er Hok. pose proof (run_inv ops w0 [] w (init_inv w0 Hi) Er Hok) as Inv. cbn [app] in Inv.
    pose proof Inv as [B M Hhok Hst Hsq Hsn Hbd Hmx Hso].
    pose proof (bf_wf _ _ _ _ _ _ _ _ _ _ _ B) as W.
    split; [exact W|]. split.
    - intros k Wk.
      pose proof (get_is_map_bytes c ok p pok seek_val mp mpok tp crc decompress fname ufc verify ri (ws_bs w) (hops_run w0 ops) k
                    W Wk Hhok Hst ltac:(rewrite Hsq; lia)) as G.
      rewrite Hsq, (map_of_run ops w0 w Er) in G. exact G.
    - intros ops1 ops2 w1 k -> Er1 Hlive Wk.
      pose proof (run_inv ops1 w0 [] w1 (init_inv w0 Hi) Er1 (bops_ok_app ops1 ops2 w0 Hok)) as Inv1. cbn [app] in Inv1.
      pose proof (wi_seq _ _ Inv1) as Hsq1.
      assert (Hle : ws_seq w1 <= ws_seq w).
      { destruct Hso as [_ Sb]. rewrite Forall_forall in Sb. apply Sb. exact Hlive. }
      pose proof (history_correct_bytes c ok p pok seek_val mp mpok tp crc decompress fname ufc verify ri (ws_bs w) _ k (ws_seq w1)
                    W Wk Hhok Hst ltac:(right; rewrite Hsn; exact Hlive) ltac:(lia)) as G.
      rewrite G. f_equal.
      rewrite (hops_run_app ops1 ops2 w0 w1 Er1), hrun_app.
      rewrite (hist_get_stable c p (hops_run w1 ops2) (hrun (hops_run w0 ops1)) k (ws_seq w1)) by (rewrite Hsq1; lia).
      rewrite <- Hsq1.
      rewrite (hist_is_map_pre c (OrderPre.comparer_ok_pre c ok) p (hops_run w0 ops1) k), (map_of_run ops1 w0 w1 Er1). reflexivity.
  Qed.
End HistoryBytes.
