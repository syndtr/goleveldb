(* Lsm/HistoryPreProofs.v — the history theorems for every comparer satisfying the PREORDER contract: every read of
   any spelling of the key at the current sequence number (or at a live snapshot's) returns what the class-keyed plain
   map returns. *)
From GL Require Import Base.OrderPre Lsm.History Lsm.HistoryProofs.

Section Proofs.
  Variable c : comparer.
  Hypothesis ok : comparer_pre_ok c.
  Variable p : kparams.

  (* C01 at the level of histories, preorder comparers: every Get at the current sequence number returns what the
     class-keyed plain map returns, whatever writes, snapshots and admissible reorganisations happened. *)
  Theorem get_is_map_pre ops k : hops_ok c p h_init ops ->
    store_get c p (hrun ops) k (h_seq (hrun ops)) = a_get c k (map_of c p ops).
  Proof. apply (current_reads_map c ok). Qed.

  (* ... and any two spellings of one user key read the same *)
  Corollary get_is_map_spelling ops k k' : hops_ok c p h_init ops -> cmp c k k' = Eq ->
    store_get c p (hrun ops) k (h_seq (hrun ops)) = store_get c p (hrun ops) k' (h_seq (hrun ops)).
  Proof. intros Hok H. rewrite !get_is_map_pre by exact Hok. apply (a_get_compat c ok). exact H. Qed.

  (* C03, preorder comparers: a live snapshot keeps returning the contents of the instant it was taken *)
  Theorem snapshot_stable_pre ops1 ops2 k : let h1 := hrun ops1 in let s := h_seq h1 in
    hops_ok c p h_init (ops1 ++ ops2) ->
    In s (h_snaps (hrun (ops1 ++ ops2))) ->
    store_get c p (hrun (ops1 ++ ops2)) k s = a_get c k (map_of c p ops1).
  Proof. apply (snapshot_reads_map c ok). Qed.
End Proofs.
