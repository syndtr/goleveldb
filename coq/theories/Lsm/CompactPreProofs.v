(* Lsm/CompactPreProofs.v — the drop rule under the PREORDER contract: CompactProofs.drop_rule_answers. *)
From GL Require Import Base.OrderPre Lsm.Compact Lsm.LsmProofs Lsm.CompactProofs.

Section Proofs.
  Variable c : comparer.
  Hypothesis ok : comparer_pre_ok c.
  Variable p : kparams.
  Hypothesis pok : kparams_ok p.
  Variable minSeq : N.
  Variable base : bytes -> bool.
  Hypothesis minSeq_lt : minSeq < keyMaxSeq p.

  Notation drop := (drop_run c p minSeq base).
  Notation ssorted := (ssorted c).
  Notation kinds_ok := (kinds_ok p).
  Notation res := (CompactProofs.res p).

  (* Drop rule, per user key (class): for every sequence number s a reader may still hold (s >= minSeq), the kept
     entries answer a lookup of k at s exactly as the inputs did. *)
  Theorem drop_rule_sound_pre k s l : ssorted l -> kinds_ok l -> minSeq <= s ->
    res (newest c k s (drop None l) None) = res (newest c k s l None).
  Proof. apply (drop_rule_answers c ok p pok minSeq base minSeq_lt). Qed.

  Theorem drop_rule_subset_pre l x : In x (drop None l) -> In x l.
  Proof. apply drop_incl. Qed.
End Proofs.
