(* Lsm/ReadPathMem.v — memGet on a memdb model state = comp_get of the L1 model on the buffer's entries.
   Uses the memdb theory of property C14: the representation invariant Inv (Mem/MemInv.v) and find_ok
   (Mem/MemOps.v: Find returns the first pair >= the key of the sorted map the arrays represent); the level-0
   chain read by [mem_walk] IS that map. *)
From GL Require Import Lsm.Lsm Lsm.LsmProofs Lsm.ReadPath Lsm.ReadPathKey.
From GL Require Import Mem.MemSpec Mem.ArrayLemmas Mem.MemInv Mem.MemFind Mem.MemOps.
From Coq Require Import Lia.
Open Scope N_scope.

Section MemRead.
  Variable c : comparer.
  Hypothesis ok : comparer_ok c.
  Variable p : kparams.
  Hypothesis pok : kparams_ok p.
  (* with pok: keyTypeSeek = keyTypeVal, as in key.go; kparams_ok alone only gives keyTypeVal <= keyTypeSeek *)
  Hypothesis seek_val : keyTypeSeek p <= keyTypeVal p.
  Variable mp : mparams.
  Hypothesis mpok : mparams_ok mp.

  Local Notation ic := (ibc c).
  Local Notation tmax := (tMaxHeight mp).

  (* the memdb satisfies C14's representation invariant and holds decodable keys only *)
  Definition mem_ok (d : db) : Prop :=
    (exists A L, Inv ic tmax d A L) /\ mem_keys_okb p mp d = true.

  Section WithInv.
    Variables (d : db) (A L : list N).
    Hypothesis I : Inv ic tmax d A L.

    Lemma node_kv_ok x : In x L -> node_kv mp d x = Ok (kvof (nodeData d) (kvData d) x).
    Proof.
      intros Hx. destruct (read_node_ok ic mp d A L x I Hx) as (R0 & R1 & R2 & RK & RV).
      unfold node_kv. rewrite (Ekey mp mpok), (Eval mp mpok).
      rewrite R0. cbn [bind]. rewrite R1. cbn [bind]. rewrite RK. cbn [bind]. rewrite R2. cbn [bind].
      rewrite RV. reflexivity.
    Qed.

    Lemma mem_walk_path : forall l fuel x,
      (length l < fuel)%nat -> incl l L -> x + 4 < len (nodeData d) ->
      path (nodeData d) 0 x l 0 ->
      mem_walk mp fuel d x = map (kvof (nodeData d) (kvData d)) l.
    Proof.
      induction l as [|z l IH]; intros fuel x Hf Hin Hx Hp; (destruct fuel as [|fuel]; [cbn in Hf; lia|]);
        cbn [mem_walk]; rewrite (Enext mp mpok), (aget_ok _ _ Hx).
      - cbn [path] in Hp. unfold nx in Hp. rewrite N.add_0_r in Hp. rewrite Hp. reflexivity.
      - cbn [path] in Hp. destruct Hp as [Hz Hp]. unfold nx in Hz. rewrite N.add_0_r in Hz. rewrite Hz.
        assert (HzL : In z L) by (apply Hin; left; reflexivity).
        pose proof (inv_nonzero ic tmax d A L I z (inv_sub _ _ _ _ _ I z HzL)) as Hz0.
        replace (z =? 0) with false by lia.
        rewrite (node_kv_ok z HzL). cbn [map]. f_equal.
        apply IH.
        + cbn in Hf. lia.
        + intros y Hy. apply Hin. right; exact Hy.
        + destruct (inv_node_L ic tmax d A L I z HzL) as (_ & H2 & _ & H4 & _). lia.
        + exact Hp.
    Qed.

    Lemma mem_pairs_abs : mem_pairs mp d = MemInv.abs d L.
    Proof.
      unfold mem_pairs, MemInv.abs. apply mem_walk_path.
      - unfold op_fuel. rewrite (inv_n _ _ _ _ _ I). destruct (inv_mh _ _ _ _ _ I). lia.
      - intros y Hy; exact Hy.
      - pose proof (inv_head _ _ _ _ _ I). pose proof (tmax_pos mp mpok). lia.
      - pose proof (inv_chain _ _ _ _ _ I 0) as Hc. rewrite (inv_lvl0 ic tmax d A L I) in Hc. apply Hc.
        pose proof (tmax_pos mp mpok). lia.
    Qed.

    Lemma mem_find_ok k : mdb_find ic mp (op_fuel d) d k = Ok (s_find_ge ic k (mem_pairs mp d)).
    Proof.
      rewrite mem_pairs_abs.
      apply (find_ok ic (ibc_ok c ok) mp mpok d A L (MemInv.abs d L) (len (kvData d))).
      split; [exact I|]. split; reflexivity.
    Qed.

    Lemma mem_pairs_sorted : Cursor.sorted ic (mem_pairs mp d).
    Proof.
      rewrite mem_pairs_abs. unfold MemInv.abs.
      pose proof (inv_sorted _ _ _ _ _ I) as HS. unfold key_sorted in HS.
      clear I. induction L as [|x l IH]; [exact Logic.I|].
      cbn [ListLemmas.sorted] in HS. destruct HS as [HF HS]. specialize (IH HS).
      cbn [map]. unfold kvof at 1. cbn [Cursor.sorted].
      clear IH. revert x HF. induction l as [|y l IH2]; intros x HF; cbn [map Cursor.sorted_from]; [exact Logic.I|].
      inversion HF as [|? ? Hxy HF']; subst. unfold kvof at 1. split; [exact Hxy|].
      apply IH2.
      - cbn [ListLemmas.sorted] in HS. apply HS.
      - cbn [ListLemmas.sorted] in HS. apply HS.
    Qed.
  End WithInv.

  Lemma s_find_ge_find k m : s_find_ge ic k m = find (not_below c k) m.
  Proof.
    unfold s_find_ge. induction m as [|kv m IH]; [reflexivity|]. cbn [find]. rewrite IH.
    unfold key_ge, not_below, ltb. destruct (cmp ic (fst kv) k); reflexivity.
  Qed.

  Lemma mem_ok_keys d : mem_ok d -> keys_ok p (mem_pairs mp d).
  Proof. intros [_ Hk]. apply Forall_forall. unfold mem_keys_okb in Hk. rewrite forallb_forall in Hk. exact Hk. Qed.

  Lemma mem_ok_pairs_sorted d : mem_ok d -> Cursor.sorted ic (mem_pairs mp d).
  Proof. intros [(A & L & I) _]. exact (mem_pairs_sorted d A L I). Qed.

  Lemma mem_ok_entries d : mem_ok d -> ssorted c (mem_entries mp (Some d)) /\ kinds_ok p (mem_entries mp (Some d)).
  Proof.
    intros M. pose proof (mem_ok_keys d M) as K. cbn [mem_entries].
    split; [exact (sorted_ssorted c ok p _ K (mem_ok_pairs_sorted d M))|exact (keys_ok_kinds p pok _ K)].
  Qed.

  Theorem mem_get_comp d k s : mem_ok d -> wf_bytes k -> s <= keyMaxSeq p ->
    mem_get c p mp d (encode_ikey (probe p k s)) k =
    match comp_get c p (map entry_of (mem_pairs mp d)) k s with
    | GMiss => None
    | r => Some (BRes r)
    end.
  Proof.
    intros M Wk Hs. pose proof (mem_ok_keys d M) as Hks. destruct M as [(A & L & I) _].
    pose proof (probe_dec p pok k s Wk Hs) as Dq.
    unfold mem_get. rewrite (mem_find_ok d A L I), s_find_ge_find.
    pose proof (find_not_below c p _ _ _ Hks Dq) as F.
    unfold comp_get. rewrite <- F.
    destruct (find (not_below c (encode_ikey (probe p k s))) (mem_pairs mp d)) as [[mk mv]|] eqn:E; cbn [option_map]; [|reflexivity].
    apply find_some in E as [Hin _].
    unfold keys_ok in Hks. rewrite Forall_forall in Hks. specialize (Hks _ Hin). cbn [fst] in Hks.
    apply key_okb_dec in Hks as (x & Dx & Kx).
    rewrite (parse_ok p mk x Dx (kind_le_val p pok x Kx seek_val)).
    rewrite (entry_of_dec (mk, mv) x Dx). cbn [e_uk fst snd].
    destruct (cmp c (uk x) k); try reflexivity.
    unfold res_of. cbn [e_kind e_val]. destruct (ik_kind x =? keyTypeDel p); reflexivity.
  Qed.

  (* memdbs built by the model's own Put from New satisfy the invariant (C14: new_ok, put_ok) *)
  Lemma mem_build_rep l : forall d A L m used, rep ic mp d A L m used ->
    Forall (fun x => 1 <= snd x /\ snd x <= tmax) l ->
    exists d' A' L' m' used', mem_build c mp d l = Ok d' /\ rep ic mp d' A' L' m' used'.
  Proof.
    induction l as [|[[k0 v0] h0] l IH]; intros d A L m used R Hh; [exists d, A, L, m, used; split; [reflexivity|exact R]|].
    inversion Hh as [|? ? [H1 H2] Hh']; subst. cbn [snd] in H1, H2.
    destruct (put_ok ic (ibc_ok c ok) mp mpok d A L m used k0 v0 h0 R H1 H2) as (d' & A' & L' & E & R' & _).
    cbn [mem_build]. unfold ReadPath.ic. rewrite E. cbn [bind]. apply (IH d' A' L' _ _ R' Hh').
  Qed.

  Lemma mem_of_inv l d : Forall (fun x => 1 <= snd x /\ snd x <= tmax) l -> mem_of c mp l = Some d ->
    exists A L, Inv ic tmax d A L.
  Proof.
    intros Hh. unfold mem_of. destruct (new_ok ic mp mpok) as (d0 & E0 & R0). rewrite E0. cbn [bind].
    destruct (mem_build_rep l d0 [] [] [] 0 R0 Hh) as (d' & A' & L' & m' & u' & E & (I & _)).
    rewrite E. intros H. injection H as <-. exists A', L'. exact I.
  Qed.
End MemRead.
