(* Lsm/BatchWriteProofs.v — the memdb-insertion half of the write path (Codec/Batch.v putMem / the tail of
   writeLocked / decodeBatchToMem) on C14's memdb states, composed with the byte-level read path
   (Lsm/ReadPath.v) and the history machine (Lsm/History.v).  Uses, does not re-prove: C14's put_ok under the
   representation invariant, the level-0 chain = the represented map (ReadPathMem), C15's key encoding,
   the L1 theory of newest / stamp (LsmProofs, HistoryProofs, ReorgProofs), get_correct_bytes. *)
From GL Require Import Base.OrderProofs Codec.Batch Codec.BatchProofs Codec.BatchGroupProofs Lsm.LsmProofs Lsm.History
  Lsm.HistoryProofs Lsm.ReorgProofs Lsm.ReadPath Lsm.ReadPathKey Lsm.ReadPathMem Lsm.ReadPathProofs.
From GL Require Import Mem.MemSpec Mem.MemOps.
From Coq Require Import Lia.
Open Scope N_scope.

Lemma stamp_seq_inj recs : forall s a b, In a (stamp s recs) -> In b (stamp s recs) -> e_seq a = e_seq b -> a = b.
Proof.
  induction recs as [|[[kd k] v] t IH]; intros s a b Ha Hb E; [destruct Ha|].
  cbn [stamp] in Ha, Hb. destruct Ha as [<-|Ha], Hb as [<-|Hb].
  - reflexivity.
  - apply stamp_seq in Hb as [Hb _]. cbn [e_seq] in E. lia.
  - apply stamp_seq in Ha as [Ha _]. cbn [e_seq] in E. lia.
  - apply (IH (s + 1)); assumption.
Qed.

Lemma uniq_in_app_stamp old s recs : uniq_in old -> (forall x, In x old -> e_seq x <= s) -> uniq_in (old ++ stamp s recs).
Proof.
  intros Hu Hfresh a b Ha Hb Euk Eseq. apply in_app_iff in Ha. apply in_app_iff in Hb.
  destruct Ha as [Ha|Ha], Hb as [Hb|Hb].
  - apply Hu; assumption.
  - apply stamp_seq in Hb as [Hb _]. specialize (Hfresh a Ha). lia.
  - apply stamp_seq in Ha as [Ha _]. specialize (Hfresh b Hb). lia.
  - exact (stamp_seq_inj recs s a b Ha Hb Eseq).
Qed.

Section SInsert.
  Variable cc : comparer.
  Hypothesis cok : comparer_ok cc.

  Lemma s_insert_in_inv k v m x : In x (s_insert cc k v m) -> x = (k, v) \/ In x m.
  Proof.
    induction m as [|[k' v'] m IH]; cbn [s_insert].
    - intros [<-|[]]. left; reflexivity.
    - destruct (cmp cc k k').
      + intros [<-|H]; [left; reflexivity|right; right; exact H].
      + intros [<-|H]; [left; reflexivity|right; exact H].
      + intros [<-|H]; [right; left; reflexivity|]. destruct (IH H) as [E|E]; [left; exact E|right; right; exact E].
  Qed.

  Lemma s_insert_in_new k v m : In (k, v) (s_insert cc k v m).
  Proof.
    induction m as [|[k' v'] m IH]; cbn [s_insert]; [left; reflexivity|].
    destruct (cmp cc k k'); [left; reflexivity|left; reflexivity|right; exact IH].
  Qed.

  Lemma s_insert_in_old k v m x : In x m -> fst x <> k -> In x (s_insert cc k v m).
  Proof.
    induction m as [|[k' v'] m IH]; cbn [s_insert]; [intros []|].
    intros Hin Hne. destruct (cmp cc k k') eqn:E.
    - apply (cmp_eq cc cok) in E. subst k'. destruct Hin as [<-|Hin]; [cbn in Hne; congruence|right; exact Hin].
    - right. exact Hin.
    - destruct Hin as [<-|Hin]; [left; reflexivity|right; apply IH; assumption].
  Qed.
End SInsert.

Section Write.
  Variable c : comparer.
  Hypothesis ok : comparer_ok c.
  Variable p : kparams.
  Hypothesis pok : kparams_ok p.
  Hypothesis seek_val : keyTypeSeek p <= keyTypeVal p.
  Variable mp : mparams.
  Hypothesis mpok : mparams_ok mp.

  Local Notation ic := (ibc c).
  Local Notation tmax := (tMaxHeight mp).

  (* a record the DB writes: Put or Delete of a byte-string key *)
  Definition rec_wf (r : brec) : Prop :=
    (fst (fst r) = keyTypeDel p \/ fst (fst r) = keyTypeVal p) /\ wf_bytes (snd (fst r)).

  Definition heights_okl (hs : list N) : Prop := Forall (fun h => 1 <= h /\ h <= tmax) hs.

  Lemma del_le_val : keyTypeDel p <= keyTypeVal p.
  Proof. destruct pok as (H1 & H2 & _). lia. Qed.

  Lemma rec_wf_ok r : rec_wf r -> rec_ok p r.
  Proof. unfold rec_wf, rec_ok. pose proof del_le_val. intros [[->| ->] _]; lia. Qed.

  Lemma val_256 : keyTypeVal p < 256.
  Proof. destruct pok as (_ & H1 & _ & H2 & _). lia. Qed.

  (* the encoded internal key of a record *)
  Definition rkey (k : bytes) (seq kt : N) : bytes := encode_ikey {| uk := k; num := pack seq kt |}.

  Lemma rkey_dec k seq kt : wf_bytes k -> seq <= keyMaxSeq p -> kt <= keyTypeVal p ->
    ik_dec (rkey k seq kt) = Some {| uk := k; num := pack seq kt |}.
  Proof. intros W Hs Hk. pose proof val_256. apply (pack_dec p pok); [exact W|exact Hs|lia]. Qed.

  Lemma rkey_entry k seq kt v : wf_bytes k -> seq <= keyMaxSeq p -> kt <= keyTypeVal p ->
    entry_of (rkey k seq kt, v) = {| e_uk := k; e_seq := seq; e_kind := kt; e_val := v |}.
  Proof.
    intros W Hs Hk. rewrite (entry_of_dec (rkey k seq kt, v) _ (rkey_dec k seq kt W Hs Hk)). cbn [uk snd].
    pose proof val_256. destruct (ik_pack k seq kt ltac:(lia)) as [-> ->]. reflexivity.
  Qed.

  Lemma rkey_okb k seq kt : wf_bytes k -> seq <= keyMaxSeq p -> (kt = keyTypeDel p \/ kt = keyTypeVal p) ->
    key_okb p (rkey k seq kt) = true.
  Proof.
    intros W Hs Hk. pose proof del_le_val. pose proof val_256.
    assert (Hle : kt <= keyTypeVal p) by (destruct Hk as [-> | ->]; lia).
    unfold key_okb. rewrite (rkey_dec k seq kt W Hs Hle).
    destruct (ik_pack k seq kt ltac:(lia)) as [_ ->].
    destruct Hk as [-> | ->]; rewrite N.eqb_refl; [reflexivity|apply Bool.orb_true_r].
  Qed.

  (* the pairs and the map after the insertions of a record list starting at sequence number seq *)
  Fixpoint rpairs (recs : list brec) (seq : N) : list (bytes * bytes) :=
    match recs with
    | [] => []
    | (kt, k, v) :: t => (rkey k seq kt, v) :: rpairs t (seq + 1)
    end.

  Fixpoint ins_recs (recs : list brec) (seq : N) (m : smap) : smap :=
    match recs with
    | [] => m
    | (kt, k, v) :: t => ins_recs t (seq + 1) (s_insert ic (rkey k seq kt) v m)
    end.

  Lemma heights_tl hs : heights_okl hs -> heights_okl (tl hs).
  Proof. intros H. destruct hs; [exact H|]. inversion H; assumption. Qed.

  Lemma heights_hd hs : heights_okl hs -> 1 <= hd 1 hs /\ hd 1 hs <= tmax.
  Proof.
    intros H. destruct hs as [|h t]; cbn [hd].
    - destruct mpok as (H1 & _). lia.
    - inversion H; assumption.
  Qed.

  (* one Put, by C14's put_ok *)
  Lemma put_one_ok d A L m used hs k seq kt v :
    rep ic mp d A L m used -> heights_okl hs -> seq <= keyMaxSeq p -> kt <= keyTypeVal p ->
    exists d' hs' A' L' used',
      put_one p ic mp d hs k seq kt v = PmOk d' hs' /\
      rep ic mp d' A' L' (s_insert ic (rkey k seq kt) v m) used' /\ heights_okl hs'.
  Proof.
    intros R Hh Hs Hk. unfold put_one. rewrite (make_ikey_ok p k seq kt Hs Hk).
    destruct (heights_hd hs Hh) as [H1 H2].
    destruct (put_ok ic (ibc_ok c ok) mp mpok d A L m used (rkey k seq kt) v (hd 1 hs) R H1 H2)
      as (d' & A' & L' & E & R' & _).
    unfold rkey in *. rewrite E.
    eexists d', _, A', L', _. split; [reflexivity|]. split; [exact R'|].
    destruct (nEnt d' =? nEnt d)%Z; [exact Hh|apply heights_tl; exact Hh].
  Qed.

  Lemma putmem_recs_ok recs : forall seq d A L m used hs,
    rep ic mp d A L m used -> heights_okl hs ->
    Forall (rec_ok p) recs -> seq + N.of_nat (length recs) <= keyMaxSeq p + 1 ->
    exists d' hs' A' L' used',
      putmem_recs p ic mp recs seq d hs = PmOk d' hs' /\
      rep ic mp d' A' L' (ins_recs recs seq m) used' /\ heights_okl hs'.
  Proof.
    induction recs as [|[[kt k] v] t IH]; intros seq d A L m used hs R Hh Hok Hs.
    - exists d, hs, A, L, used. split; [reflexivity|]. split; assumption.
    - inversion Hok as [|? ? Hr Ht]; subst. unfold rec_ok in Hr. cbn [fst] in Hr. cbn [length] in Hs.
      assert (Hmax : keyMaxSeq p < 2 ^ 64).
      { destruct pok as (_ & _ & _ & _ & Hm & _). rewrite Hm. change (2 ^ 56) with 72057594037927936.
        change (2 ^ 64) with 18446744073709551616. lia. }
      cbn [putmem_recs ins_recs]. rewrite u64_small by lia.
      destruct (put_one_ok d A L m used hs k seq kt v R Hh ltac:(lia) Hr) as (d1 & hs1 & A1 & L1 & u1 & E & R1 & Hh1).
      rewrite E. apply (IH (seq + 1) d1 A1 L1 _ u1 hs1 R1 Hh1 Ht). lia.
  Qed.

  Definition pseq (kv : bytes * bytes) : N := e_seq (entry_of kv).

  Lemma rpairs_wf recs : forall seq, Forall rec_wf recs -> seq + N.of_nat (length recs) <= keyMaxSeq p + 1 ->
    forall kv, In kv (rpairs recs seq) -> key_okb p (fst kv) = true /\ seq <= pseq kv /\ pseq kv < seq + N.of_nat (length recs).
  Proof.
    induction recs as [|[[kt k] v] t IH]; intros seq Hw Hs kv; cbn [rpairs length]; [intros []|].
    inversion Hw as [|? ? [Hk Wk] Ht]; subst. cbn [fst snd] in Hk, Wk. cbn [length] in Hs.
    pose proof del_le_val.
    assert (Hle : kt <= keyTypeVal p) by (destruct Hk as [-> | ->]; lia).
    intros [<-|Hin].
    - cbn [fst]. split; [apply rkey_okb; try assumption; lia|].
      unfold pseq. rewrite rkey_entry by (try assumption; lia). cbn [e_seq]. lia.
    - destruct (IH (seq + 1) Ht ltac:(lia) kv Hin) as (H1 & H2 & H3). split; [exact H1|]. lia.
  Qed.

  Lemma ins_recs_in recs : forall s m,
    Forall rec_wf recs -> s + N.of_nat (length recs) <= keyMaxSeq p ->
    keys_ok p m -> (forall kv, In kv m -> pseq kv <= s) ->
    forall kv, In kv (ins_recs recs (s + 1) m) <-> In kv m \/ In kv (rpairs recs (s + 1)).
  Proof.
    induction recs as [|[[kt k] v] t IH]; intros s m Hw Hs Hk Hf kv; cbn [ins_recs rpairs].
    - split; [left; assumption|intros [H|[]]; exact H].
    - inversion Hw as [|? ? [Hkt Wk] Ht]; subst. cbn [fst snd] in Hkt, Wk. cbn [length] in Hs.
      pose proof del_le_val.
      assert (Hle : kt <= keyTypeVal p) by (destruct Hkt as [-> | ->]; lia).
      set (nk := rkey k (s + 1) kt).
      assert (Hnew : pseq (nk, v) = s + 1).
      { unfold pseq, nk. rewrite rkey_entry by (try assumption; lia). reflexivity. }
      assert (Hstep : forall x, In x (s_insert ic nk v m) <-> x = (nk, v) \/ In x m).
      { intros x. split.
        - apply s_insert_in_inv.
        - intros [->|Hx]; [apply s_insert_in_new|].
          apply (s_insert_in_old ic (ibc_ok c ok)); [exact Hx|].
          intros E. specialize (Hf x Hx).
          assert (pseq x = pseq (nk, v)).
          { unfold pseq, entry_of. cbn [fst]. rewrite E. destruct (ik_dec nk); reflexivity. }
          lia. }
      rewrite (IH (s + 1) (s_insert ic nk v m) Ht ltac:(lia)).
      + rewrite Hstep. cbn [In]. split; [intros [[->|H1]|H1]; [right; left; reflexivity|left; exact H1|right; right; exact H1] | intros [H1|[<-|H1]]; [left; right; exact H1|left; left; reflexivity|right; exact H1]].
      + unfold keys_ok in *. apply Forall_forall. intros x Hx. apply Hstep in Hx as [->|Hx].
        * cbn [fst]. unfold nk. apply rkey_okb; try assumption. lia.
        * rewrite Forall_forall in Hk. apply Hk. exact Hx.
      + intros x Hx. apply Hstep in Hx as [->|Hx]; [lia|]. specialize (Hf x Hx). lia.
  Qed.

  Lemma rpairs_stamp recs : forall s, Forall rec_wf recs -> s + N.of_nat (length recs) <= keyMaxSeq p ->
    map entry_of (rpairs recs (s + 1)) = stamp s recs.
  Proof.
    induction recs as [|[[kt k] v] t IH]; intros s Hw Hs; [reflexivity|].
    inversion Hw as [|? ? [Hkt Wk] Ht]; subst. cbn [fst snd] in Hkt, Wk. cbn [length] in Hs.
    pose proof del_le_val.
    assert (Hle : kt <= keyTypeVal p) by (destruct Hkt as [-> | ->]; lia).
    cbn [rpairs map stamp]. rewrite rkey_entry by (try assumption; lia). f_equal. apply IH; [exact Ht|lia].
  Qed.

  (* inserting a record list at db.seq+1 .. into a memdb that satisfies C14's invariant, holds stored keys
     and nothing newer than db.seq: the call succeeds (no panic, fuel suffices), the invariant and the key
     condition still hold, and the abstraction (the entries of the level-0 chain, as ReadPath's abs reads
     them) is the old abstraction plus exactly stamp db.seq recs — the store of one HWrite step *)
  Theorem putmem_recs_history d recs dbseq hs :
    mem_ok c p mp d -> (forall x, In x (mem_entries mp (Some d)) -> e_seq x <= dbseq) ->
    Forall rec_wf recs -> dbseq + N.of_nat (length recs) <= keyMaxSeq p -> heights_okl hs ->
    exists d' hs',
      putmem_recs p ic mp recs (dbseq + 1) d hs = PmOk d' hs' /\ mem_ok c p mp d' /\ heights_okl hs' /\
      (forall x, In x (mem_entries mp (Some d')) <-> In x (mem_entries mp (Some d)) \/ In x (stamp dbseq recs)).
  Proof.
    intros Md Hfresh Hw Hs Hh. pose proof (mem_ok_keys c p mp d Md) as Hks. destruct Md as [(A & L & I) _].
    assert (R : rep ic mp d A L (mem_pairs mp d) (len (kvData d))).
    { split; [exact I|]. split; [|reflexivity]. symmetry. apply (mem_pairs_abs c p seek_val mp mpok d A L I). }
    assert (Hok : Forall (rec_ok p) recs).
    { eapply Forall_impl; [|exact Hw]. apply rec_wf_ok. }
    destruct (putmem_recs_ok recs (dbseq + 1) d A L _ _ hs R Hh Hok ltac:(lia))
      as (d' & hs' & A' & L' & u' & E & (I' & Eabs & _) & Hh').
    exists d', hs'. split; [exact E|].
    assert (Ep : mem_pairs mp d' = ins_recs recs (dbseq + 1) (mem_pairs mp d)).
    { rewrite (mem_pairs_abs c p seek_val mp mpok d' A' L' I'). exact Eabs. }
    assert (Hf : forall kv, In kv (mem_pairs mp d) -> pseq kv <= dbseq).
    { intros kv Hin. apply Hfresh. cbn [mem_entries]. apply in_map. exact Hin. }
    pose proof (ins_recs_in recs dbseq (mem_pairs mp d) Hw Hs Hks Hf) as Hin.
    split; [|split; [exact Hh'|]].
    - split; [exists A', L'; exact I'|].
      unfold mem_keys_okb. rewrite Ep. apply forallb_forall. intros kv Hkv. apply Hin in Hkv as [Hkv|Hkv].
      + unfold keys_ok in Hks. rewrite Forall_forall in Hks. apply Hks. exact Hkv.
      + apply (rpairs_wf recs (dbseq + 1) Hw ltac:(lia) kv Hkv).
    - intros x. cbn [mem_entries]. rewrite Ep. rewrite <- (rpairs_stamp recs dbseq Hw Hs).
      rewrite !in_map_iff. split.
      + intros (kv & <- & Hkv). apply Hin in Hkv as [Hkv|Hkv]; [left|right]; exists kv; split; auto.
      + intros [(kv & <- & Hkv)|(kv & <- & Hkv)]; exists kv; (split; [reflexivity|]); apply Hin; [left|right]; exact Hkv.
  Qed.

  Lemma norm_wf recs : Forall rec_wf recs -> Forall rec_wf (map (norm_rec p) recs).
  Proof.
    intros H. apply Forall_forall. intros r Hr. apply in_map_iff in Hr as ([[kt k] v] & <- & Hin).
    rewrite Forall_forall in H. exact (H _ Hin).
  Qed.

  (* the same for Batch.putMem of a batch built by Put/Delete calls ... *)
  Corollary putmem_is_history_write d recs dbseq hs :
    mem_ok c p mp d -> (forall x, In x (mem_entries mp (Some d)) -> e_seq x <= dbseq) ->
    Forall rec_wf recs -> dbseq + N.of_nat (length recs) <= keyMaxSeq p -> heights_okl hs ->
    lenN (enc_recs p recs) < 2 ^ 63 ->
    exists d' hs',
      batch_putmem p ic mp (batch_of p recs) (dbseq + 1) d hs = PmOk d' hs' /\ mem_ok c p mp d' /\ heights_okl hs' /\
      (forall x, In x (mem_entries mp (Some d')) <->
                 In x (mem_entries mp (Some d)) \/ In x (stamp dbseq (map (norm_rec p) recs))).
  Proof.
    intros Hm Hf Hw Hs Hh Hl.
    rewrite (putmem_batch_of p pok ic mp recs (dbseq + 1) d hs) by first [exact Hl | (eapply Forall_impl; [|exact Hw]; apply rec_wf_ok)].
    apply putmem_recs_history; try assumption; [apply norm_wf; exact Hw|rewrite map_length; exact Hs].
  Qed.

  (* ... and for a merged group: the loop of writeLocked over its batches *)
  Corollary putmem_group_history d groups dbseq hs :
    mem_ok c p mp d -> (forall x, In x (mem_entries mp (Some d)) -> e_seq x <= dbseq) ->
    Forall rec_wf (concat groups) -> dbseq + N.of_nat (length (concat groups)) <= keyMaxSeq p -> heights_okl hs ->
    lenN (enc_recs p (concat groups)) < 2 ^ 63 ->
    exists d' hs',
      putmem_group p ic mp (group_of p groups) (dbseq + 1) d hs = PmOk d' hs' /\ mem_ok c p mp d' /\ heights_okl hs' /\
      (forall x, In x (mem_entries mp (Some d')) <->
                 In x (mem_entries mp (Some d)) \/ In x (stamp dbseq (map (norm_rec p) (concat groups)))).
  Proof.
    intros Hm Hf Hw Hs Hh Hl.
    rewrite (putmem_group_recs p pok ic mp groups (dbseq + 1) d hs) by first [exact Hl | (eapply Forall_impl; [|exact Hw]; apply rec_wf_ok)].
    apply putmem_recs_history; try assumption; [apply norm_wf; exact Hw|rewrite map_length; exact Hs].
  Qed.

  Lemma a_get_fold k recs : forall m,
    a_get c k (fold_left (a_apply c p) recs m) = recs_get p c k recs (a_get c k m).
  Proof.
    induction recs as [|[[kd k'] v] t IH]; intros m; [reflexivity|].
    cbn [fold_left recs_get]. rewrite IH. f_equal.
    rewrite (pa_get_apply c (OrderPre.comparer_ok_pre c ok) p k m (kd, k', v)). reflexivity.
  Qed.

  Lemma recs_get_norm k recs : Forall rec_wf recs -> forall prev,
    recs_get p c k (map (norm_rec p) recs) prev = recs_get p c k recs prev.
  Proof.
    induction recs as [|[[kd k'] v] t IH]; intros Hw prev; [reflexivity|].
    inversion Hw as [|? ? [Hk _] Ht]; subst. cbn [fst] in Hk.
    cbn [map norm_rec recs_get]. rewrite (IH Ht).
    destruct (kd =? keyTypeVal p) eqn:E; [reflexivity|].
    destruct Hk as [-> | ->]; [rewrite N.eqb_refl; reflexivity|rewrite N.eqb_refl in E; discriminate].
  Qed.

  Section Bytes.
    Variable tp : Table.tparams.
    Variable crc : bytes -> N.
    Variable decompress : bytes -> option bytes.
    Variable fname : option bytes.
    Variable ufc : bytes -> N -> bytes -> bool.
    Variable verify : bool.
    Variable ri : N.

    Local Notation wfb := (wf_bstate c p mp tp crc decompress fname ufc verify ri).
    Local Notation absS := (ReadPath.abs c mp tp crc decompress fname ufc verify ri).
    Local Notation getb := (db_get_bytes c p mp tp crc decompress fname ufc verify).

    Definition with_mem (st : bstate) (d : db) : bstate := mkBS (Some d) (bs_frozen st) (bs_levels st).

    Lemma abs_with_mem st d :
      absS (with_mem st d) = {| st_mem := mem_entries mp (Some d); st_frozen := st_frozen (absS st);
                                st_aux := []; st_levels := st_levels (absS st) |}.
    Proof. reflexivity. Qed.

    Lemma in_comps_tail st x y : In y (tl (comps (absS st))) -> In x y -> In x (all_entries (absS st)).
    Proof.
      intros Hy Hx. rewrite all_entries_comps. apply in_concat. exists y. split; [|exact Hx].
      destruct (comps (absS st)); [destruct Hy|right; exact Hy].
    Qed.

    (* the byte state after the insertions is well-formed again, and holds the old entries plus the new ones, for
       any collection of new entries that are newer than everything stored *)
    Lemma write_wf_gen st d d' (new : list entry) lo :
      wfb st -> bs_mem st = Some d -> mem_ok c p mp d' ->
      (forall x, In x (all_entries (absS st)) -> e_seq x <= lo) ->
      (forall a, In a new -> lo < e_seq a) ->
      (forall x, In x (mem_entries mp (Some d')) <-> In x (mem_entries mp (Some d)) \/ In x new) ->
      wfb (with_mem st d') /\ same_elems (all_entries (absS st) ++ new) (all_entries (absS (with_mem st d'))).
    Proof.
      intros W Hd Hm' Hfresh Hnew Hin.
      assert (Emem : st_mem (absS st) = mem_entries mp (Some d)) by (cbn [ReadPath.abs st_mem]; rewrite Hd; reflexivity).
      split.
      - destruct W as [Wm Wf Wt Wa]. constructor.
        + intros x Hx. cbn [with_mem bs_mem] in Hx. injection Hx as <-. exact Hm'.
        + exact Wf.
        + exact Wt.
        + destruct Wa as [Wmem Wfro Waux Wl0 Wdeep Wch]. rewrite abs_with_mem. constructor; cbn [st_mem st_frozen st_aux st_levels].
          * exact (mem_ok_entries c ok p pok seek_val mp mpok d' Hm').
          * exact Wfro.
          * exact Waux.
          * exact Wl0.
          * exact Wdeep.
          * unfold comps in *. cbn [st_mem st_frozen st_aux st_levels chain_newer] in *.
            destruct Wch as [Nm Rest]. split; [|exact Rest].
            apply Forall_forall. intros y Hy a b Ha Hb Hu.
            apply Hin in Ha as [Ha|Ha].
            -- rewrite Forall_forall in Nm. rewrite <- Emem in Ha. exact (Nm y Hy a b Ha Hb Hu).
            -- specialize (Hnew a Ha).
               assert (In b (all_entries (absS st))).
               { apply (in_comps_tail st b y); [|exact Hb]. unfold comps. cbn [tl]. exact Hy. }
               specialize (Hfresh b H). lia.
      - intros x. unfold all_entries. rewrite abs_with_mem. cbn [st_mem st_frozen st_aux st_levels all_tables].
        rewrite Emem. cbn [ReadPath.abs st_aux]. rewrite !in_app_iff. rewrite Hin. clear. tauto.
    Qed.

    (* the stamped records of a batch written at db.seq+1.. *)
    Lemma write_wf st d d' recs dbseq :
      wfb st -> bs_mem st = Some d -> mem_ok c p mp d' ->
      (forall x, In x (all_entries (absS st)) -> e_seq x <= dbseq) ->
      (forall x, In x (mem_entries mp (Some d')) <-> In x (mem_entries mp (Some d)) \/ In x (stamp dbseq recs)) ->
      wfb (with_mem st d') /\
      same_elems (all_entries (absS st) ++ stamp dbseq recs) (all_entries (absS (with_mem st d'))).
    Proof.
      intros W Hd Hm' Hfresh Hin. apply (write_wf_gen st d d' (stamp dbseq recs) dbseq W Hd Hm' Hfresh); [|exact Hin].
      intros a Ha. apply stamp_seq in Ha. lia.
    Qed.

    (* after a record list was inserted at db.seq+1.. (by whichever path), DB.Get computed on the BYTES at the
       new sequence number returns, for every key, what the list's last record for that key says — its value,
       or not-found for a deletion — and for a key the list does not mention what DB.Get returned before *)
    Theorem get_after_write st d d' recs dbseq k :
      wfb st -> bs_mem st = Some d -> mem_ok c p mp d' ->
      uniq_in (all_entries (absS st)) ->
      (forall x, In x (all_entries (absS st)) -> e_seq x <= dbseq) ->
      (forall x, In x (mem_entries mp (Some d')) <-> In x (mem_entries mp (Some d)) \/ In x (stamp dbseq recs)) ->
      dbseq + N.of_nat (length recs) <= keyMaxSeq p -> wf_bytes k ->
      exists prev, bapi (getb st k dbseq) = Some prev /\
        bapi (getb (with_mem st d') k (dbseq + N.of_nat (length recs))) = Some (recs_get p c k recs prev).
    Proof.
      intros W Hd Hm' Hu Hfresh Hin Hs Wk.
      destruct (write_wf st d d' recs dbseq W Hd Hm' Hfresh Hin) as [W' SE].
      exists (History.res p (newest c k dbseq (all_entries (absS st)) None)). split.
      - rewrite (get_correct_bytes c ok p pok seek_val mp mpok tp crc decompress fname ufc verify ri k dbseq Wk ltac:(lia) st W).
        reflexivity.
      - rewrite (get_correct_bytes c ok p pok seek_val mp mpok tp crc decompress fname ufc verify ri k _ Wk Hs _ W').
        cbn [bapi]. f_equal.
        pose proof (uniq_in_app_stamp _ dbseq recs Hu Hfresh) as Hu2.
        rewrite <- (newest_same_elems c ok k _ _ _ Hu2 SE).
        change (api_of (group_res p ?z)) with (History.res p z).
        set (prev := History.res p (newest c k dbseq (all_entries (absS st)) None)).
        set (m := match prev with Some v => [(k, v)] | None => [] end : amap).
        assert (Em : a_get c k m = prev).
        { unfold m. destruct prev; cbn [a_get]; [rewrite (cmp_refl c ok)|]; reflexivity. }
        rewrite (hist_recs c ok p k recs dbseq (all_entries (absS st)) m Hfresh (eq_sym Em)).
        rewrite a_get_fold, Em. reflexivity.
    Qed.

    (* live path: a merged group written by writeLocked's tail *)
    Corollary get_after_group_write st d groups dbseq hs k :
      wfb st -> bs_mem st = Some d -> uniq_in (all_entries (absS st)) ->
      (forall x, In x (all_entries (absS st)) -> e_seq x <= dbseq) ->
      Forall rec_wf (concat groups) -> dbseq + N.of_nat (length (concat groups)) <= keyMaxSeq p -> heights_okl hs ->
      lenN (enc_recs p (concat groups)) < 2 ^ 63 -> wf_bytes k ->
      exists record d' hs' prev,
        write_group p ic mp dbseq (group_of p groups) d hs = WgOk record d' hs' (dbseq + N.of_nat (length (concat groups))) /\
        wfb (with_mem st d') /\
        bapi (getb st k dbseq) = Some prev /\
        bapi (getb (with_mem st d') k (dbseq + N.of_nat (length (concat groups)))) = Some (recs_get p c k (concat groups) prev).
    Proof.
      intros W Hd Hu Hfresh Hw Hs Hh Hl Wk.
      assert (Hfm : forall x, In x (mem_entries mp (Some d)) -> e_seq x <= dbseq).
      { intros x Hx. apply Hfresh. unfold all_entries. apply in_app_iff. left. cbn [ReadPath.abs st_mem]. rewrite Hd. exact Hx. }
      destruct (putmem_group_history d groups dbseq hs (wb_mem _ _ _ _ _ _ _ _ _ _ _ W d Hd) Hfm Hw Hs Hh Hl)
        as (d' & hs' & E & Hm' & _ & Hin).
      assert (Hmax : keyMaxSeq p + 1 < 18446744073709551616).
      { destruct pok as (_ & _ & _ & _ & Hm & _). rewrite Hm. change (2 ^ 56) with 72057594037927936. lia. }
      assert (Hs' : dbseq + N.of_nat (length (map (norm_rec p) (concat groups))) <= keyMaxSeq p) by (rewrite map_length; exact Hs).
      destruct (get_after_write st d d' (map (norm_rec p) (concat groups)) dbseq k W Hd Hm' Hu Hfresh Hin Hs' Wk)
        as (prev & G1 & G2).
      destruct (write_wf st d d' _ dbseq W Hd Hm' Hfresh Hin) as [W' _].
      exists (group_record (group_of p groups) (dbseq + 1)), d', hs', prev.
      split; [|split; [exact W'|split; [exact G1|]]].
      - unfold write_group. rewrite u64_small by (change (2 ^ 64) with 18446744073709551616; lia). rewrite E. f_equal.
        rewrite (group_len p). apply u64_small. change (2 ^ 64) with 18446744073709551616. lia.
      - rewrite map_length in G2. rewrite G2. f_equal. apply recs_get_norm. exact Hw.
    Qed.

    (* replay path: the same group's journal record replayed by recoverJournal's step into the same memdb
       (the expected sequence number is the old db.seq): the same state, hence the same answers; db.seq ends
       one higher than on the live path (first seq + count), which no read at or above it can notice *)
    Corollary get_after_group_replay st d groups dbseq hs k strict :
      wfb st -> bs_mem st = Some d -> uniq_in (all_entries (absS st)) ->
      (forall x, In x (all_entries (absS st)) -> e_seq x <= dbseq) ->
      Forall rec_wf (concat groups) -> dbseq + N.of_nat (length (concat groups)) < keyMaxSeq p -> heights_okl hs ->
      N.of_nat (length (concat groups)) < 2 ^ 32 -> lenN (enc_recs p (concat groups)) < 2 ^ 59 -> wf_bytes k ->
      exists record d' hs' prev,
        write_group p ic mp dbseq (group_of p groups) d hs = WgOk record d' hs' (dbseq + N.of_nat (length (concat groups))) /\
        recover_step p 12 ic mp strict record dbseq d hs = RsOk d' hs' (dbseq + N.of_nat (length (concat groups)) + 1) /\
        wfb (with_mem st d') /\
        bapi (getb st k dbseq) = Some prev /\
        bapi (getb (with_mem st d') k (dbseq + N.of_nat (length (concat groups)))) = Some (recs_get p c k (concat groups) prev).
    Proof.
      intros W Hd Hu Hfresh Hw Hs0 Hh Hn Hl Wk.
      assert (Hs : dbseq + N.of_nat (length (concat groups)) <= keyMaxSeq p) by lia.
      assert (Hl' : lenN (enc_recs p (concat groups)) < 2 ^ 63).
      { change (2 ^ 59) with 576460752303423488 in Hl. change (2 ^ 63) with 9223372036854775808. lia. }
      destruct (get_after_group_write st d groups dbseq hs k W Hd Hu Hfresh Hw Hs Hh Hl' Wk)
        as (record & d' & hs' & prev & E & W' & G1 & G2).
      exists record, d', hs', prev. split; [exact E|]. split; [|split; [exact W'|split; [exact G1|exact G2]]].
      assert (Hmax : keyMaxSeq p + 1 < 18446744073709551616).
      { destruct pok as (_ & _ & _ & _ & Hm & _). rewrite Hm. change (2 ^ 56) with 72057594037927936. lia. }
      assert (Hok : Forall (rec_ok p) (concat groups)) by (eapply Forall_impl; [|exact Hw]; apply rec_wf_ok).
      rewrite (write_then_recover p pok 12 eq_refl ic mp groups dbseq strict d hs record d' hs' _ Hok
                 ltac:(change (2 ^ 64) with 18446744073709551616; lia) Hn Hl ltac:(lia) E).
      f_equal. apply u64_small. change (2 ^ 64) with 18446744073709551616. lia.
    Qed.
  End Bytes.
End Write.
