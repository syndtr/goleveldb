(* Lsm/BuilderStep.v — the abstraction "outputs = chunks of the kept merged entries cut only between different user keys"
   (C06Steps.outputs_of) discharged for the model of tableCompactionBuilder: for the compaction the model picker builds
   on a well-formed version, whatever transient failures hit the attempts of compactionTransact, the tables recorded when
   it returns satisfy outputs_of — so installing them keeps the invariant (C06Steps.compaction_step, also interleaved with
   level-0 installs) and reads at every sequence number >= minSeq are preserved (C06Steps.model_compaction_admissible
   speaks about the same compact_entries). *)
From GL Require Import Lsm.LsmProofs Lsm.ReorgProofs Lsm.WfLsm Lsm.ModelStep Lsm.C06Steps Lsm.Builder Lsm.BuilderBase
  Lsm.BuilderCuts.
From Coq Require Import Lia.

Local Open Scope nat_scope.

Section Closed.
  Variable c : comparer.
  Hypothesis ok : comparer_ok c.
  Variable p : kparams.
  Hypothesis pok : kparams_ok p.
  Variable sz : table -> N.

  Notation wf_lsm := (wf_lsm c p).

  Lemma deeper_ok v lvl : wf_lsm v -> Forall (lvl_ok c p) (skipn (lvl + 2) v).
  Proof.
    intros W. apply Forall_forall. intros l Hl. apply (PickBase.in_skipn_nth []) in Hl as (j & Hj & _ & <-). fold (lv v j).
    split; [intros t Ht; apply (wl_tbl c p v W j t Ht)|apply (wl_deep c p v W j); lia].
  Qed.

  Theorem builder_outputs_of v lvl limit seed : wf_lsm v -> seed_ok v lvl seed ->
    exists cm, new_compaction c sz v lvl limit seed = POk cm /\
      forall gp maxgp minSeq strict tableSize tsize os s',
        let deeper := skipn (lvl + 2) v in
        let es := merge_inputs c (c_t0 cm ++ c_t1 cm) in
        transact c p sz gp maxgp deeper minSeq strict tableSize tsize os (map IGood es) (bst0 deeper) = (s', TDone) ->
        out_items s' = map (map IGood) (fin s') /\
        outputs_of c p cm minSeq deeper (fin s') /\
        kerr s' = 0%N /\
        (drop s' + N.of_nat (length (compact_entries c p minSeq deeper (c_t0 cm ++ c_t1 cm))) = N.of_nat (length es))%N.
  Proof.
    intros W [S1 [S2 S3]]. destruct (model_pick c ok p sz v W lvl limit seed S1 S2 S3) as [cm [E Pk]].
    exists cm. split; [exact E|]. intros gp maxgp minSeq strict tableSize tsize os s' deeper es H.
    assert (Hs : ssorted c es).
    { unfold es, merge_inputs. apply (isort_sorted c ok p pok).
      - apply (pk_I_kinds c p v W lvl seed cm Pk).
      - apply (pk_I_uniq c p sz v W lvl seed cm Pk). }
    destruct (transact_good c ok p sz gp maxgp deeper (deeper_ok v lvl W) minSeq strict tableSize tsize es os s'
                (ssorted_uk_sorted c es Hs) H) as [Q1 [Q2 [Q3 [Q4 Q5]]]].
    split; [exact Q1|]. split; [split; [exact Q2|exact Q3]|]. split; [exact Q4|exact Q5].
  Qed.

  (* installing them keeps the invariant, for every history of transient failures *)
  Theorem builder_compaction_step v lvl limit seed : wf_lsm v -> seed_ok v lvl seed ->
    exists cm, new_compaction c sz v lvl limit seed = POk cm /\
      forall gp maxgp minSeq strict tableSize tsize os s' nums,
        let deeper := skipn (lvl + 2) v in
        transact c p sz gp maxgp deeper minSeq strict tableSize tsize os
                 (map IGood (merge_inputs c (c_t0 cm ++ c_t1 cm))) (bst0 deeper) = (s', TDone) ->
        length nums = length (fin s') -> fresh_nums v nums ->
        exists nv, finish c true v (compaction_edit cm (mk_outputs nums (fin s'))) = POk nv /\ wf_lsm nv.
  Proof.
    intros W Sd. destruct (builder_outputs_of v lvl limit seed W Sd) as [cm [E B]].
    destruct (compaction_step c ok p pok sz v lvl limit seed W Sd) as [cm' [E' St]].
    rewrite E in E'. injection E' as <-.
    exists cm. split; [exact E|]. intros gp maxgp minSeq strict tableSize tsize os s' nums deeper H Hl Hf.
    destruct (B gp maxgp minSeq strict tableSize tsize os s' H) as [_ [O _]].
    apply (St minSeq deeper (fin s') nums O Hl Hf).
  Qed.

  Theorem builder_compaction_step_interleaved v lvl limit seed : wf_lsm v -> seed_ok v lvl seed ->
    exists cm, new_compaction c sz v lvl limit seed = POk cm /\
      forall v2 gp maxgp minSeq strict tableSize tsize os s' nums,
        let deeper := skipn (lvl + 2) v in
        later_version c p v v2 ->
        transact c p sz gp maxgp deeper minSeq strict tableSize tsize os
                 (map IGood (merge_inputs c (c_t0 cm ++ c_t1 cm))) (bst0 deeper) = (s', TDone) ->
        length nums = length (fin s') -> fresh_nums v2 nums ->
        exists nv, finish c true v2 (compaction_edit cm (mk_outputs nums (fin s'))) = POk nv /\ wf_lsm nv.
  Proof.
    intros W Sd. destruct (builder_outputs_of v lvl limit seed W Sd) as [cm [E B]].
    destruct (compaction_step_interleaved c ok p pok sz v lvl limit seed W Sd) as [cm' [E' St]].
    rewrite E in E'. injection E' as <-.
    exists cm. split; [exact E|]. intros v2 gp maxgp minSeq strict tableSize tsize os s' nums deeper L H Hl Hf.
    destruct (B gp maxgp minSeq strict tableSize tsize os s' H) as [_ [O _]].
    apply (St v2 minSeq deeper (fin s') nums L O Hl Hf).
  Qed.
End Closed.
