(* Lsm/BuilderShape.v — every table tableCompactionBuilder records (model Lsm/Builder.v) is non-empty, its recorded
   largest key is its last entry and its recorded smallest key is its first entry with a non-empty key (tWriter.append
   leaves first == nil for zero-length keys) — for all inputs, all failure histories, every way compactionTransact ends.
   Also: shouldStopBefore is idempotent on one key, which is why the [resumed] flag of run is redundant. *)
From GL Require Import Lsm.Builder.
From GL Require Base.VarintProofs.
From Coq Require Import Arith Lia.

Local Open Scope nat_scope.

Definition no_item : item := IBad [] [].
Definition key_present (it : item) : bool := negb (item_key_empty it).

Definition shape (items : list item) (first last_ : option item) : Prop :=
  items <> [] /\ last_ = Some (last items no_item) /\ first = find key_present items.

Definition shape_w (w : twriter) : Prop := shape (w_items w) (w_first w) (w_last w).
Definition shape_o (o : otable) : Prop := shape (o_items o) (o_first o) (o_last o).
Definition sinv (s : bst) : Prop := Forall shape_o (recs s) /\ forall w, tw s = Some w -> shape_w w.

Lemma find_snoc {A} (f : A -> bool) l x :
  find f (l ++ [x]) = match find f l with Some y => Some y | None => if f x then Some x else None end.
Proof. induction l as [|a l IH]; cbn [app find]; [reflexivity|]. destruct (f a); [reflexivity|exact IH]. Qed.

Lemma tw_append_shape w it : (forall x, w = Some x -> shape_w x) -> shape_w (tw_append w it).
Proof.
  intros H. destruct w as [x|]; unfold shape_w, shape; cbn [tw_append w_items w_first w_last].
  - destruct (H x eq_refl) as [H1 [H2 H3]]. split; [destruct (w_items x); discriminate|]. split.
    + rewrite last_last. reflexivity.
    + rewrite find_snoc, <- H3. unfold key_present. destruct (w_first x); [reflexivity|].
      destruct (item_key_empty it); reflexivity.
  - split; [discriminate|]. split; [reflexivity|]. cbn [find]. unfold key_present. destruct (item_key_empty it); reflexivity.
Qed.

Section Shape.
  Variable c : comparer.
  Variable p : kparams.
  Variable sz : table -> N.
  Variable gp : list table.
  Variable maxgp : N.
  Variable deeper : list (list table).
  Variable minSeq : N.
  Variable strict : bool.
  Variable tableSize : N.
  Variable tsize : list item -> N.

  Notation run_loop := (run_loop c p sz gp maxgp deeper minSeq strict tableSize tsize).
  Notation step := (step c p sz gp maxgp deeper minSeq strict tableSize tsize).
  Notation run_attempt := (run_attempt c p sz gp maxgp deeper minSeq strict tableSize tsize).
  Notation transact := (transact c p sz gp maxgp deeper minSeq strict tableSize tsize).

  Definition sres_inv (r : sres) : Prop := match r with SCont s => sinv s | SFail s _ => sinv s end.

  Lemma append_shape o i it s : sinv s -> sres_inv (append_kv o i it s).
  Proof.
    intros I. unfold append_kv.
    assert (A : sinv (set_tw s (Some (tw_append (tw s) it)))).
    { destruct I as [H1 H2]. split; [exact H1|]. intros w Hw. cbn [tw set_tw] in Hw. injection Hw as <-.
      apply tw_append_shape. exact H2. }
    set (nw := tw_append (tw s) it) in *. clearbody nw.
    destruct (tw s) as [w|]; destruct (o_append o i); cbn [sres_inv]; try exact A. exact I.
  Qed.

  Lemma flush_shape i w s : sinv s -> tw s = Some w -> sinv (flush_and_snapshot i w s).
  Proof.
    intros [H1 H2] T. split; [|intros w' Hw'; discriminate]. cbn [recs flush_and_snapshot]. apply Forall_app. split; [exact H1|].
    constructor; [|constructor]. exact (H2 w T).
  Qed.

  Lemma step_shape o rp i it s : sinv s -> sres_inv (step o rp i it s).
  Proof.
    intros I. destruct it as [e|k v]; cbn [Builder.step].
    - unfold Builder.step_good.
      destruct (if rp then (false, cs s) else should_stop c sz gp maxgp (cs s) (e_ikey e)) as [stop cs1].
      assert (I1 : sinv (set_cs s cs1)) by exact I. set (s1 := set_cs s cs1) in *.
      assert (PB : forall s3, sinv s3 ->
        sres_inv (if (lseq s3 <=? minSeq)%N then SCont (drop_entry s3 (e_seq e))
                  else if ((e_kind e =? keyTypeDel p) && (e_seq e <=? minSeq))%N
                       then let '(b, ptrs') := base_levels c deeper (cs_ptrs (cs s3)) (ukey s3) in
                            let s4 := set_ptrs s3 ptrs' in
                            if b then SCont (drop_entry s4 (e_seq e)) else append_kv o i (IGood e) (set_seq s4 (e_seq e))
                       else append_kv o i (IGood e) (set_seq s3 (e_seq e)))).
      { intros s3 I3. destruct (lseq s3 <=? minSeq)%N; [exact I3|].
        destruct ((e_kind e =? keyTypeDel p) && (e_seq e <=? minSeq))%N.
        - destruct (base_levels c deeper (cs_ptrs (cs s3)) (ukey s3)) as [b ptrs']. destruct b; [exact I3|].
          apply append_shape. exact I3.
        - apply append_shape. exact I3. }
      destruct (first_occ c s1 (e_uk e)); [|apply PB; exact I1].
      destruct (tw s1) as [w|] eqn:T.
      + destruct (stop || need_flush tableSize tsize w).
        * destruct (o_flush o i); [exact I1|]. apply PB. apply (flush_shape i w s1 I1 T).
        * apply PB. exact I1.
      + apply PB. exact I1.
    - unfold Builder.step_bad. destruct strict; [exact I|]. apply append_shape. exact I.
  Qed.

  Lemma loop_shape o k : forall l i rp s, sinv s -> sinv (fst (run_loop o k i rp l s)).
  Proof.
    induction l as [|it l IH]; intros i rp s I; cbn [Builder.run_loop].
    - destruct (o_next o i); [exact I|]. destruct (tw s) as [w|] eqn:T; [|exact I].
      destruct (tw_empty w); [exact I|]. destruct (o_flush o i); [exact I|]. cbn [fst].
      destruct I as [H1 H2]. split; [|intros w' Hw'; discriminate]. cbn [recs]. apply Forall_app. split; [exact H1|].
      constructor; [exact (H2 w T)|constructor].
    - destruct (o_next o i); [exact I|]. destruct (Nat.ltb i k); [apply IH; exact I|].
      pose proof (step_shape o rp i it s I) as S. destruct (step o rp i it s) as [s'|s' r]; [apply IH; exact S|exact S].
  Qed.

  Lemma attempt_shape o items s : sinv s -> sinv (fst (run_attempt o items s)).
  Proof.
    intros I. unfold Builder.run_attempt, cleanup.
    assert (R : sinv (restore s)) by exact I.
    pose proof (loop_shape o (sn_iter (snap (restore s))) items 0 (Nat.ltb 0 (sn_iter (snap (restore s)))) (restore s) R) as L.
    destruct (tw (fst (run_loop o (sn_iter (snap (restore s))) 0 (Nat.ltb 0 (sn_iter (snap (restore s)))) items (restore s)))); [|exact L].
    cbn [fst]. destruct L as [L1 _]. split; [exact L1|intros w Hw; discriminate].
  Qed.

  Lemma revert_shape s : sinv s -> sinv (revert s).
  Proof. intros [_ H2]. split; [constructor|exact H2]. Qed.

  Theorem transact_shape items : forall os s, sinv s -> sinv (fst (transact os items s)).
  Proof.
    induction os as [|o os IH]; intros s I; cbn [Builder.transact]; [exact I|].
    destruct (o_closed o); [apply revert_shape; exact I|].
    pose proof (attempt_shape o items s I) as A. destruct (run_attempt o items s) as [s1 r]. cbn [fst] in A.
    destruct (o_closed_sel o); [apply revert_shape; exact A|].
    destruct r; [exact A| |apply revert_shape; exact A].
    destruct (o_perr o); [apply revert_shape; exact A|apply IH; exact A].
  Qed.

  Theorem outputs_shape items os : Forall shape_o (recs (fst (transact os items (bst0 deeper)))).
  Proof.
    apply (transact_shape items os (bst0 deeper)). split; [constructor|intros w H; discriminate].
  Qed.

  (* shouldStopBefore twice on the same key: the second call answers false and changes nothing *)
  Lemma ssb_loop_ge ik : forall rest gpi seen b, gpi <= fst (ssb_loop c sz rest gpi seen b ik).
  Proof.
    induction rest as [|g r IH]; intros gpi seen b; cbn [ssb_loop]; [cbn; lia|].
    destruct (icmp c ik (imax_of g)); try (cbn; lia). specialize (IH (S gpi) seen (if seen then (b + sz g)%N else b)). lia.
  Qed.

  Lemma ssb_loop_fix ik : forall rest gpi seen b g' b',
    ssb_loop c sz rest gpi seen b ik = (g', b') ->
    ssb_loop c sz (skipn (g' - gpi) rest) g' true b' ik = (g', b').
  Proof.
    induction rest as [|g r IH]; intros gpi seen b g' b' H; cbn [ssb_loop] in H.
    - injection H as <- <-. rewrite Nat.sub_diag. reflexivity.
    - destruct (icmp c ik (imax_of g)) eqn:E.
      + injection H as <- <-. rewrite Nat.sub_diag. cbn [skipn ssb_loop]. rewrite E. reflexivity.
      + injection H as <- <-. rewrite Nat.sub_diag. cbn [skipn ssb_loop]. rewrite E. reflexivity.
      + assert (Hge : S gpi <= g').
        { pose proof (ssb_loop_ge ik r (S gpi) seen (if seen then (b + sz g)%N else b)) as Q. rewrite H in Q. exact Q. }
        specialize (IH _ _ _ _ _ H). replace (g' - gpi) with (S (g' - S gpi)) by lia. cbn [skipn]. exact IH.
  Qed.

  Theorem should_stop_idempotent x ik :
    let x1 := snd (should_stop c sz gp maxgp x ik) in
    should_stop c sz gp maxgp x1 ik = (false, x1).
  Proof.
    cbn zeta. unfold should_stop.
    destruct (ssb_loop c sz (skipn (cs_gpi x) gp) (cs_gpi x) (cs_seen x) (cs_bytes x) ik) as [g' b'] eqn:E.
    pose proof (ssb_loop_fix ik _ _ _ _ _ _ E) as F.
    pose proof (ssb_loop_ge ik (skipn (cs_gpi x) gp) (cs_gpi x) (cs_seen x) (cs_bytes x)) as G. rewrite E in G. cbn [fst] in G.
    assert (Sk : skipn (g' - cs_gpi x) (skipn (cs_gpi x) gp) = skipn g' gp).
    { rewrite VarintProofs.skipn_skipn'. f_equal. lia. }
    rewrite Sk in F.
    destruct (maxgp <? b')%N eqn:M; cbn [snd cs_gpi cs_seen cs_bytes cs_ptrs].
    - (* the first call answered true and reset the counter *)
      assert (F0 : ssb_loop c sz (skipn g' gp) g' true 0%N ik = (g', 0%N)).
      { clear -F. destruct (skipn g' gp) as [|g r]; cbn [ssb_loop] in *; [reflexivity|].
        destruct (icmp c ik (imax_of g)); try reflexivity.
        exfalso. pose proof (ssb_loop_ge ik r (S g') true (b' + sz g)%N) as Q. rewrite F in Q. cbn [fst] in Q. lia. }
      rewrite F0. replace (maxgp <? 0)%N with false by (symmetry; apply N.ltb_ge; lia). reflexivity.
    - rewrite F, M. reflexivity.
  Qed.

  (* the first entry processed after a resume is a first occurrence whatever hasLastUkey / lastUkey / lastSeq were restored
     to: starting the resumed run with hasLastUkey = false gives the same iteration *)
  Theorem resume_last_irrelevant o i e m u q : tw m = None -> first_occ c m (e_uk e) = true ->
    step_good c p sz gp maxgp deeper minSeq tableSize tsize o true i e (set_last m false u q) =
    step_good c p sz gp maxgp deeper minSeq tableSize tsize o true i e m.
  Proof.
    intros T F. unfold Builder.step_good.
    assert (F1 : first_occ c (set_cs (set_last m false u q) (cs (set_last m false u q))) (e_uk e) = true) by reflexivity.
    assert (F2 : first_occ c (set_cs m (cs m)) (e_uk e) = true) by exact F.
    rewrite F1, F2.
    assert (T1 : tw (set_cs (set_last m false u q) (cs (set_last m false u q))) = None) by exact T.
    assert (T2 : tw (set_cs m (cs m)) = None) by exact T.
    rewrite T1, T2. reflexivity.
  Qed.
End Shape.
