(* Lsm/OutputProofs.v — the tables written by a compaction form a well-formed run: each is sorted, and
   since the builder only cuts between different user keys no user key spans two of them (C06). *)
From GL Require Import Base.OrderProofs Lsm.Compact Lsm.LsmProofs.

Section Proofs.
  Variable c : comparer.
  Hypothesis ok : comparer_ok c.

  Notation ssorted := (ssorted c).

  Lemma ssorted_app_l l1 l2 : ssorted (l1 ++ l2) -> ssorted l1.
  Proof.
    induction l1 as [|a l1 IH]; cbn [app LsmProofs.ssorted]; [intros; exact I|].
    intros [Hall Hs]. split; [|apply IH; exact Hs].
    rewrite Forall_forall in *. intros x Hx. apply Hall. apply in_or_app. left; exact Hx.
  Qed.

  Lemma ssorted_app_r l1 l2 : ssorted (l1 ++ l2) -> ssorted l2.
  Proof. induction l1 as [|a l1 IH]; cbn [app LsmProofs.ssorted]; [auto|]. intros [_ Hs]. apply IH; exact Hs. Qed.

  Lemma ssorted_app_cross l1 l2 x y : ssorted (l1 ++ l2) -> In x l1 -> In y l2 -> ecmp c x y = Lt.
  Proof.
    induction l1 as [|a l1 IH]; intros Hs Hx Hy; [destruct Hx|].
    cbn [app LsmProofs.ssorted] in Hs. destruct Hs as [Hall Hs]. destruct Hx as [->|Hx].
    - rewrite Forall_forall in Hall. apply Hall. apply in_or_app. right; exact Hy.
    - apply IH; assumption.
  Qed.

  Definition mk_tables (outs : list (list entry)) : list table :=
    map (fun es => {| t_num := 0; t_entries := es |}) outs.

  Lemma uk_le_of_sorted l x y : ssorted l -> In x l -> In y l -> x = y \/ ecmp c x y = Lt \/ ecmp c y x = Lt.
  Proof.
    induction l as [|a l IH]; intros Hs Hx Hy; [destruct Hx|].
    destruct Hs as [Hall Hs]. rewrite Forall_forall in Hall.
    destruct Hx as [->|Hx]; destruct Hy as [->|Hy]; auto.
  Qed.

  (* every output table is sorted, and for two different output tables every user key of the earlier one
     is strictly smaller than every user key of the later one *)
  Theorem outputs_well_formed outs : cuts_ok c outs = true -> ssorted (concat outs) ->
    Forall (fun es => ssorted es /\ es <> []) outs /\ level_sorted c (mk_tables outs).
  Proof.
    induction outs as [|o rest IH]; intros Hc Hs; [split; [constructor|exact I]|].
    cbn [cuts_ok] in Hc. apply andb_prop in Hc as [Hc Hc3]. apply andb_prop in Hc as [Hc1 Hc2].
    cbn [concat] in Hs.
    destruct (IH Hc3 (ssorted_app_r _ _ Hs)) as [IH1 IH2].
    assert (Hne : o <> []) by (destruct o; [discriminate|discriminate]).
    split; [constructor; [split; [eapply ssorted_app_l; eauto|exact Hne]|exact IH1]|].
    cbn [mk_tables map level_sorted]. split; [|exact IH2].
    rewrite Forall_forall. intros t' Ht' x y Hx Hy. cbn [t_entries] in Hx.
    apply in_map_iff in Ht' as [es [<- Hes]]. cbn [t_entries] in Hy.
    (* the first entry of the next table has a user key different from the last entry of o *)
    destruct rest as [|o2 rest']; [destruct Hes|].
    destruct (last (map Some o) None) as [la|] eqn:LA; [|discriminate].
    destruct (hd_error o2) as [fb|] eqn:FB; [|discriminate].
    assert (Hla : In la o) by (apply last_some_in; exact LA).
    assert (Hfb : In fb o2) by (destruct o2; [discriminate|injection FB as ->; left; reflexivity]).
    assert (Hy' : In y (concat (o2 :: rest'))) by (apply in_concat; exists es; split; assumption).
    assert (Hfb' : In fb (concat (o2 :: rest'))) by (cbn [concat]; apply in_or_app; left; exact Hfb).
    (* x <= la *)
    assert (X : cmp c (e_uk x) (e_uk la) <> Gt).
    { destruct (ssorted_last_ge c o x la (ssorted_app_l _ _ Hs) LA Hx) as [->|H].
      - rewrite (cmp_refl c ok). discriminate.
      - apply (after_uk_le c). exact H. }
    (* la < fb strictly in user key *)
    assert (L : cmp c (e_uk la) (e_uk fb) = Lt).
    { pose proof (ssorted_app_cross o _ la fb Hs Hla Hfb') as H. apply (after_uk_le c) in H.
      destruct (cmp c (e_uk la) (e_uk fb)) eqn:E; [discriminate|reflexivity|congruence]. }
    (* fb <= y *)
    assert (Y : cmp c (e_uk fb) (e_uk y) <> Gt).
    { assert (Hs2 : ssorted (concat (o2 :: rest'))) by (eapply ssorted_app_r; eauto).
      destruct o2 as [|f o2']; [discriminate|]. injection FB as ->.
      cbn [concat app] in Hs2, Hy'. destruct Hs2 as [Hall _]. destruct Hy' as [<-|Hy'].
      - rewrite (cmp_refl c ok). discriminate.
      - rewrite Forall_forall in Hall. apply (after_uk_le c). apply Hall. exact Hy'. }
    eapply (OrderProofs.lt_le_trans c ok); [|exact Y]. eapply (OrderProofs.le_lt_trans c ok); [exact X|exact L].
  Qed.
End Proofs.
