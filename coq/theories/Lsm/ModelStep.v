(* Lsm/ModelStep.v — property C06 for the compaction the model of goleveldb's own picker builds (Pick.new_compaction):
   on a well-formed version, for every level and every seed, the chosen inputs are closed and admissible, installing
   the outputs (chunks of the kept merged entries cut at user-key boundaries) or moving the single input table keeps the
   invariant, and the entry-level hypotheses of ReorgProofs.compaction_preserves hold. *)
From GL Require Import Base.OrderPre Base.OrderProofs Codec.IKeyProofs Lsm.LsmProofs Lsm.CompactProofs Lsm.ReorgProofs
  Lsm.OutputProofs Lsm.Pick Lsm.PickBase Lsm.OverlapProofs Lsm.ExpandProofs Lsm.WfLsm Lsm.InsertProofs Lsm.StepProofs.
From Coq Require Import Arith Lia.

Local Open Scope nat_scope.

Lemma uniq_nodup_tables l : (forall t, In t l -> t_entries t <> []) -> uniq (LE l) -> NoDup l.
Proof.
  induction l as [|t l IH]; intros Hne U; [constructor|].
  unfold LE in U. cbn [map concat] in U. apply uniq_app in U as [_ [U2 U3]].
  constructor; [|apply IH; [intros u Hu; apply Hne; right; exact Hu|exact U2]].
  intros Hin. destruct (t_entries t) as [|x xs] eqn:E; [apply (Hne t (or_introl eq_refl) E)|].
  apply (U3 x x); [left; reflexivity| |reflexivity]. apply LE_in. exists t. split; [exact Hin|rewrite E; left; reflexivity].
Qed.

(* a strictly ordered list whose (key, seq) pairs determine the entry has no two entries with the same (key, seq) *)
Lemma ssorted_uniq c (ok : comparer_ok c) l : ssorted c l -> uniq_in l -> uniq l.
Proof.
  induction l as [|a l IH]; intros Hs Hu; [constructor|]. destruct Hs as [Hall Hs]. unfold uniq. cbn [map].
  constructor.
  - intros Hin. apply in_map_iff in Hin as [b [E Hb]]. unfold keyseq in E. injection E as E1 E2.
    assert (a = b) by (apply Hu; [left; reflexivity|right; exact Hb|congruence|congruence]). subst b.
    rewrite Forall_forall in Hall. specialize (Hall a Hb). unfold ecmp in Hall.
    apply (icmp_irrefl c ok _ Hall).
  - apply IH; [exact Hs|]. intros x y Hx Hy. apply Hu; right; assumption.
Qed.

Lemma level_sorted_entries c a b : map t_entries a = map t_entries b -> level_sorted c a -> level_sorted c b.
Proof.
  revert b; induction a as [|x a IH]; intros b E H; destruct b as [|y b]; try discriminate; [exact I|].
  cbn [map] in E. injection E as E1 E2. destruct H as [Hall H]. split; [|apply IH; assumption].
  rewrite Forall_forall in *. intros t' Ht'. rewrite <- E1.
  destruct (In_nth _ _ no_table Ht') as [i [Hi Ei]].
  assert (Hl : length a = length b) by (rewrite <- (map_length t_entries a), E2, map_length; reflexivity).
  assert (Et : t_entries (nth i a no_table) = t_entries t').
  { rewrite <- Ei. change (t_entries (nth i a no_table)) with (t_entries (nth i a no_table)).
    rewrite <- (map_nth t_entries a no_table i), <- (map_nth t_entries b no_table i), E2. reflexivity. }
  rewrite <- Et. apply Hall. apply nth_In. lia.
Qed.

Lemma mk_outputs_entries nums chunks : length nums = length chunks -> map t_entries (mk_outputs nums chunks) = chunks.
Proof.
  revert chunks; induction nums as [|n nums IH]; intros [|o chunks] H; try discriminate; [reflexivity|].
  cbn [mk_outputs map t_entries]. f_equal. apply IH. cbn in H. lia.
Qed.

Lemma mk_outputs_nums nums chunks : length nums = length chunks -> map t_num (mk_outputs nums chunks) = nums.
Proof.
  revert chunks; induction nums as [|n nums IH]; intros [|o chunks] H; try discriminate; [reflexivity|].
  cbn [mk_outputs map t_num]. f_equal. apply IH. cbn in H. lia.
Qed.

Lemma in_concat_lv (v : list (list table)) s : In s (concat v) -> exists j, In s (lv v j).
Proof.
  intros H. apply in_concat in H as [l [Hl Hs]]. destruct (In_nth _ _ [] Hl) as [j [_ E]].
  exists j. unfold lv. rewrite E. exact Hs.
Qed.

Lemma in_LE_concat (v : list (list table)) x : In x (LE (concat v)) <-> exists i, In x (LE (lv v i)).
Proof.
  rewrite LE_in. split.
  - intros [t [Ht Hx]]. destruct (in_concat_lv v t Ht) as [j Hj]. exists j. apply LE_in. exists t. split; assumption.
  - intros [i Hi]. apply LE_in in Hi as [t [Ht Hx]]. exists t. split; [apply (in_level_concat v i t Ht)|exact Hx].
Qed.

Lemma in_lv_skipn (v : list (list table)) k j s : k <= j -> In s (lv v j) -> In s (concat (skipn k v)).
Proof.
  intros Hk Hs. apply in_concat. exists (lv v j). split; [|exact Hs].
  unfold lv in *. destruct (Nat.lt_ge_cases j (length v)) as [Q|Q].
  - apply (in_skipn_nth [] k v). exists j. repeat split; assumption.
  - rewrite (nth_overflow v [] Q) in Hs. destruct Hs.
Qed.

Section Model.
  Variable c : comparer.
  Hypothesis ok : comparer_ok c.
  Variable p : kparams.
  Hypothesis pok : kparams_ok p.
  Variable sz : table -> N.

  Notation wf_lsm := (wf_lsm c p).
  Notation tbl_ok := (tbl_ok c p).
  Notation umin_of := Pick.umin_of.
  Notation umax_of := Pick.umax_of.
  Notation lt := (Order.lt c).
  Notation le := (Order.le c).

  Variable v : list (list table).
  Hypothesis W : wf_lsm v.

  Lemma lv_nodup l : NoDup (lv v l).
  Proof.
    apply uniq_nodup_tables; [|apply (wl_uniq c p v W)]. intros t Ht. apply (wl_tbl c p v W l t Ht).
  Qed.

  Variable lvl : nat.
  Variable limit : N.
  Variable seed : list table.
  Hypothesis seed_ne : seed <> [].
  Hypothesis seed_in : incl seed (lv v lvl).
  Hypothesis seed_nd : NoDup seed.

  (* the model picker terminates without panic and its choice satisfies ExpandProofs.pick_ok *)
  Theorem model_pick : exists cm, new_compaction c sz v lvl limit seed = POk cm /\ pick_ok c v lvl seed cm.
  Proof.
    unfold new_compaction. apply (expand_spec c ok p sz v lvl limit seed); try assumption.
    - intros l t Ht. apply (wl_tbl c p v W l t Ht).
    - intros l Hl. apply (wl_deep c p v W l Hl).
    - intros l. apply lv_nodup.
  Qed.

  Section Picked.
    Variable cm : compaction.
    Hypothesis Pk : pick_ok c v lvl seed cm.

    Let t0 := c_t0 cm.
    Let t1 := c_t1 cm.
    Let I := LE (t0 ++ t1).

    Lemma pk_level : c_level cm = lvl.
    Proof. apply Pk. Qed.

    Lemma pk_seed : incl seed t0.
    Proof. destruct Pk as [_ [fr S]]. apply S. Qed.

    Lemma pk_t0 : incl t0 (lv v lvl).
    Proof. destruct Pk as [_ [fr S]]. apply S. Qed.

    Lemma pk_t1 : incl t1 (lv v (S lvl)).
    Proof. destruct Pk as [_ [fr [_ [_ [_ [_ [_ [_ M]]]]]]]]. intros s Hs. apply M in Hs. apply Hs. Qed.

    Lemma pk_nd0 : NoDup t0.
    Proof. destruct Pk as [_ [fr S]]. apply S. Qed.

    Lemma pk_nd1 : NoDup t1.
    Proof. destruct Pk as [_ [fr S]]. apply S. Qed.

    Lemma pk_t0_ne : t0 <> [].
    Proof.
      intros E. apply seed_ne. apply incl_l_nil. rewrite <- E. exact pk_seed.
    Qed.

    (* the inputs are closed: every table of the next level overlapping the user-key range of any two chosen source
       tables is an input, and for source level 0 so is every such table of level 0 *)
    Theorem inputs_closed_next s ta tb : In s (lv v (S lvl)) -> In ta t0 -> In tb t0 ->
      t_overlaps c s (Some (umin_of ta)) (Some (umax_of tb)) = true -> In s t1.
    Proof.
      destruct Pk as [_ [fr [_ [_ [Cv [_ [_ [_ M]]]]]]]]. intros Hs Ha Hb Ho. apply M. split; [exact Hs|].
      apply (overlaps_wider c ok s _ _ (Some (umin_of ta)) (Some (umax_of tb))); [| |exact Ho]; cbn.
      - apply (Cv ta Ha).
      - apply (Cv tb Hb).
    Qed.

    Theorem inputs_closed_l0 s ta tb : lvl = 0 -> In s (lv v 0) -> In ta t0 -> In tb t0 ->
      t_overlaps c s (Some (umin_of ta)) (Some (umax_of tb)) = true -> In s t0.
    Proof.
      destruct Pk as [_ [fr [_ [_ [_ [Cl _]]]]]]. intros -> Hs Ha Hb Ho. apply (Cl eq_refl s ta tb Hs Ha Hb Ho).
    Qed.

    Lemma pk_A1 s t x y : In s (lv v lvl) -> In t t0 -> In x (t_entries s) -> In y (t_entries t) ->
      e_uk x = e_uk y -> In s t0.
    Proof.
      intros Hs Ht Hx Hy Hu. destruct (Nat.eq_dec lvl 0) as [E|E].
      - apply (inputs_closed_l0 s t t E); [rewrite <- E; exact Hs|exact Ht|exact Ht|].
        apply (overlaps_of_key c ok p s x _ _ (wl_tbl c p v W lvl s Hs) Hx). rewrite Hu.
        apply (tbl_bounds c ok p t y (wl_tbl c p v W lvl t (pk_t0 t Ht)) Hy).
      - rewrite (level_sorted_share c ok (lv v lvl) s t x y (wl_deep c p v W lvl ltac:(lia)) Hs (pk_t0 t Ht) Hx Hy Hu).
        exact Ht.
    Qed.

    Lemma pk_A2 s : In s (lv v (S lvl)) -> ~ In s t1 -> sep c s I.
    Proof.
      intros Hs Hn. destruct Pk as [_ [fr [_ [_ [Cv [_ [_ [_ M]]]]]]]].
      set (rlo := uk (fst fr)) in *. set (rhi := uk (snd fr)) in *.
      assert (No : t_overlaps c s (Some rlo) (Some rhi) = false).
      { destruct (t_overlaps c s (Some rlo) (Some rhi)) eqn:E; [|reflexivity]. exfalso. apply Hn. apply M. split; assumption. }
      pose proof (wl_tbl c p v W (S lvl)) as T1.
      pose proof (wl_deep c p v W (S lvl) ltac:(lia)) as Srt.
      pose proof (level_sorted_bsorted c p _ T1 Srt) as Bs.
      apply (in_nth_ex no_table) in Hs as [i [Hi Ei]].
      (* position of an input of the next level relative to s *)
      assert (Pos : forall u, In u t1 -> exists j, j < length (lv v (S lvl)) /\ nth j (lv v (S lvl)) no_table = u /\ j <> i).
      { intros u Hu. pose proof (pk_t1 u Hu) as Hu'. apply (in_nth_ex no_table) in Hu' as [j [Hj Ej]].
        exists j. split; [exact Hj|]. split; [exact Ej|]. intros ->. apply Hn. rewrite <- Ei, Ej. exact Hu. }
      assert (Ts : tbl_ok s) by (apply T1; rewrite <- Ei; apply nth_In; exact Hi).
      unfold t_overlaps in No. apply Bool.andb_false_iff in No as [No|No]; apply Bool.negb_false_iff in No.
      - (* s lies before the range *)
        left. apply (t_after_some c ok) in No. intros x y Hx Hy. unfold I in Hy. rewrite LE_app in Hy.
        destruct (tbl_bounds c ok p s x Ts Hx) as [_ Bx].
        apply in_app_or in Hy as [Hy|Hy]; apply LE_in in Hy as [t [Ht Hy]].
        + destruct (Cv t Ht) as [C1 _]. fold rlo in C1.
          destruct (tbl_bounds c ok p t y (wl_tbl c p v W lvl t (pk_t0 t Ht)) Hy) as [By _].
          eapply (OrderProofs.le_lt_trans c ok); [exact Bx|]. eapply (OrderProofs.lt_le_trans c ok); [exact No|].
          eapply (OrderProofs.le_trans c ok); eassumption.
        + destruct (Pos t Ht) as [j [Hj [Ej Hne]]].
          assert (Ou : t_overlaps c t (Some rlo) (Some rhi) = true) by (apply M; exact Ht).
          unfold t_overlaps in Ou. apply andb_prop in Ou as [Ou _]. apply Bool.negb_true_iff in Ou.
          apply (t_after_false c ok) in Ou.
          destruct (Nat.lt_ge_cases i j) as [Q|Q].
          * rewrite <- Ei in Hx. rewrite <- Ej in Hy. apply (level_sorted_pair c _ i j Srt Q Hj x y Hx Hy).
          * exfalso. assert (Q' : j < i) by lia. pose proof (Bs j i Q' Hi) as B. unfold tnth in B. rewrite Ei, Ej in B.
            apply (OrderProofs.lt_irrefl c ok (umax_of t)).
            eapply (OrderProofs.lt_le_trans c ok); [exact B|].
            eapply (OrderProofs.le_trans c ok); [apply (tbl_valid c ok p s Ts)|].
            eapply (OrderProofs.le_trans c ok); [apply (OrderProofs.lt_le c); exact No|exact Ou].
      - (* s lies after the range *)
        right. apply (t_before_some c) in No. intros y x Hy Hx. unfold I in Hy. rewrite LE_app in Hy.
        destruct (tbl_bounds c ok p s x Ts Hx) as [Bx _].
        apply in_app_or in Hy as [Hy|Hy]; apply LE_in in Hy as [t [Ht Hy]].
        + destruct (Cv t Ht) as [_ C2]. fold rhi in C2.
          destruct (tbl_bounds c ok p t y (wl_tbl c p v W lvl t (pk_t0 t Ht)) Hy) as [_ By].
          eapply (OrderProofs.le_lt_trans c ok); [eapply (OrderProofs.le_trans c ok); eassumption|].
          eapply (OrderProofs.lt_le_trans c ok); [exact No|exact Bx].
        + destruct (Pos t Ht) as [j [Hj [Ej Hne]]].
          assert (Ou : t_overlaps c t (Some rlo) (Some rhi) = true) by (apply M; exact Ht).
          unfold t_overlaps in Ou. apply andb_prop in Ou as [_ Ou]. apply Bool.negb_true_iff in Ou.
          apply (t_before_false c ok) in Ou.
          destruct (Nat.lt_ge_cases j i) as [Q|Q].
          * rewrite <- Ei in Hx. rewrite <- Ej in Hy. apply (level_sorted_pair c _ j i Srt Q Hi y x Hy Hx).
          * exfalso. assert (Q' : i < j) by lia. pose proof (Bs i j Q' Hj) as B. unfold tnth in B. rewrite Ei, Ej in B.
            apply (OrderProofs.lt_irrefl c ok (umin_of t)).
            eapply (OrderProofs.le_lt_trans c ok); [exact Ou|].
            eapply (OrderProofs.lt_le_trans c ok); [exact No|].
            eapply (OrderProofs.le_trans c ok); [apply (tbl_valid c ok p s Ts)|apply (OrderProofs.lt_le c); exact B].
    Qed.

    (* the input entries: valid kinds, no two with the same (key, seq) *)
    Lemma pk_I_kinds : kinds_ok p I.
    Proof.
      apply Forall_forall. intros x Hx. unfold I in Hx. rewrite LE_app in Hx.
      apply in_app_or in Hx as [Hx|Hx]; apply LE_in in Hx as [t [Ht Hx]].
      - destruct (wl_tbl c p v W lvl t (pk_t0 t Ht)) as [[_ K] _]. apply (kinds_ok_in p _ _ K Hx).
      - destruct (wl_tbl c p v W (S lvl) t (pk_t1 t Ht)) as [[_ K] _]. apply (kinds_ok_in p _ _ K Hx).
    Qed.

    Lemma pk_I_uniq : uniq I.
    Proof.
      unfold I. rewrite LE_app. apply uniq_app.
      split; [apply (uniq_sub t0 (lv v lvl) pk_nd0 pk_t0 (wl_uniq c p v W lvl))|].
      split; [apply (uniq_sub t1 (lv v (S lvl)) pk_nd1 pk_t1 (wl_uniq c p v W (S lvl)))|].
      intros x y Hx Hy E. unfold keyseq in E. injection E as Eu Es.
      apply LE_in in Hx as [t [Ht Hx]]. apply LE_in in Hy as [u [Hu Hy]].
      assert (Hx' : In x (LE (lv v lvl))) by (apply LE_in; exists t; split; [apply pk_t0; exact Ht|exact Hx]).
      assert (Hy' : In y (LE (lv v (S lvl)))) by (apply LE_in; exists u; split; [apply pk_t1; exact Hu|exact Hy]).
      pose proof (wl_chain c p v W lvl (S lvl) ltac:(lia) x y Hx' Hy' Eu). lia.
    Qed.

    Section Outputs.
      Variable minSeq : N.
      Variable deeper : list (list table).
      Variable chunks : list (list entry).
      Variable nums : list N.
      Hypothesis cuts : cuts_ok c chunks = true.
      Hypothesis kept : concat chunks = compact_entries c p minSeq deeper (t0 ++ t1).
      Hypothesis nums_len : length nums = length chunks.
      Hypothesis nums_nd : NoDup nums.

      Let outs := mk_outputs nums chunks.

      Lemma kept_I x : In x (concat chunks) -> In x I.
      Proof.
        rewrite kept. unfold compact_entries, merge_inputs. intros H. apply drop_incl in H.
        apply (proj1 (isort_in c _ x)) in H. exact H.
      Qed.

      Lemma kept_sorted : ssorted c (concat chunks).
      Proof.
        rewrite kept. unfold compact_entries, merge_inputs. apply drop_sorted.
        apply (isort_sorted c ok p pok); [exact pk_I_kinds|exact pk_I_uniq].
      Qed.

      Lemma outs_entries : map t_entries outs = chunks.
      Proof. apply mk_outputs_entries. exact nums_len. Qed.

      Lemma outs_LE : LE outs = concat chunks.
      Proof. unfold LE. rewrite outs_entries. reflexivity. Qed.

      Lemma out_in_chunks o : In o outs -> In (t_entries o) chunks.
      Proof. intros H. rewrite <- outs_entries. apply in_map. exact H. Qed.

      (* the output tables are admissible for StepProofs.compaction_step *)
      Lemma outs_ok :
        (forall o, In o outs -> tbl_ok o) /\ level_sorted c outs /\
        (forall o x, In o outs -> In x (t_entries o) -> In x I) /\ uniq (LE outs) /\
        (forall o o', In o outs -> In o' outs -> t_num o = t_num o' -> o = o') /\
        (forall o, In o outs -> In (t_num o) nums).
      Proof.
        destruct (outputs_well_formed c ok chunks cuts kept_sorted) as [F1 F2].
        assert (O3 : forall o x, In o outs -> In x (t_entries o) -> In x I).
        { intros o x Ho Hx. apply kept_I. apply in_concat. exists (t_entries o). split; [apply out_in_chunks; exact Ho|exact Hx]. }
        assert (Hn : map t_num outs = nums) by (apply mk_outputs_nums; exact nums_len).
        split; [|split; [|split; [exact O3|split; [|split]]]].
        - intros o Ho. rewrite Forall_forall in F1. destruct (F1 _ (out_in_chunks o Ho)) as [S1 S2].
          split; [|exact S2]. split; [exact S1|]. apply Forall_forall. intros x Hx.
          apply (kinds_ok_in p _ _ pk_I_kinds). apply (O3 o x Ho Hx).
        - apply (level_sorted_entries c (mk_tables chunks) outs); [|exact F2].
          rewrite outs_entries. unfold mk_tables. rewrite map_map. cbn [t_entries]. apply map_id.
        - rewrite outs_LE. apply (ssorted_uniq c ok _ kept_sorted).
          intros a b Ha Hb Hu Hs. apply (uniq_inj I a b pk_I_uniq (kept_I a Ha) (kept_I b Hb) Hu Hs).
        - intros o o' Ho Ho' E.
          destruct (In_nth _ _ no_table Ho) as [i [Hi Ei]]. destruct (In_nth _ _ no_table Ho') as [j [Hj Ej]].
          assert (Li : i < length nums) by (rewrite <- Hn, map_length; exact Hi).
          assert (Lj : j < length nums) by (rewrite <- Hn, map_length; exact Hj).
          assert (Ni : nth i nums 0%N = t_num o).
          { rewrite <- Hn, <- Ei. change 0%N with (t_num no_table). apply map_nth. }
          assert (Nj : nth j nums 0%N = t_num o').
          { rewrite <- Hn, <- Ej. change 0%N with (t_num no_table). apply map_nth. }
          assert (i = j) by (apply (proj1 (NoDup_nth nums 0%N) nums_nd i j Li Lj); congruence).
          subst j. congruence.
        - intros o Ho. rewrite <- Hn. apply in_map. exact Ho.
      Qed.


      (* the same when level-0 tables were installed between picking and committing (memdb flushes and transaction
         commits are not blocked by a running table compaction): v2 is the version at commit time *)
      Theorem model_compaction_step_interleaved v2 :
        wf_lsm v2 ->
        (forall l, 0 < l -> lv v2 l = lv v l) ->
        (forall s, In s (lv v 0) -> In s (lv v2 0)) ->
        (forall s, In s (lv v2 0) -> In s (lv v 0) \/
           forall x i y, In x (t_entries s) -> In y (LE (lv v i)) -> e_uk x = e_uk y -> (e_seq y < e_seq x)%N) ->
        (forall n i s, In n nums -> In s (lv v2 i) -> t_num s <> n) ->
        exists nv, finish c true v2 (compaction_edit cm outs) = POk nv /\ wf_lsm nv.
      Proof.
        intros W2 Same Sub0 Split0 nums_fresh. destruct outs_ok as [O1 [O2 [O3 [O4 [O5 On]]]]].
        assert (Sub : forall l s, In s (lv v l) -> In s (lv v2 l)).
        { intros l s Hs. destruct l as [|l]; [apply Sub0; exact Hs|rewrite Same by lia; exact Hs]. }
        apply (compaction_step c ok p v2 W2 cm outs); rewrite ?pk_level; try assumption.
        - intros s Hs. apply Sub. apply pk_t0. exact Hs.
        - intros s Hs. apply Sub. apply pk_t1. exact Hs.
        - intros s t x y H1 H2 H3 H4 H5. destruct (Nat.eq_dec lvl 0) as [E0|E0].
          + assert (H1' : In s (lv v2 0)) by (rewrite <- E0; exact H1).
            destruct (Split0 s H1') as [Q|Q]; [left; apply (pk_A1 s t x y); try assumption; rewrite E0; exact Q|].
            right. apply (Q x lvl y H3); [|exact H5]. apply LE_in. exists t. split; [apply pk_t0; exact H2|exact H4].
          + left. rewrite Same in H1 by lia. apply (pk_A1 s t x y); assumption.
        - intros s Hs Hn. rewrite Same in Hs by lia. apply pk_A2; assumption.
        - intros o i s Ho Hs E. exfalso. apply (nums_fresh (t_num o) i s (On o Ho) Hs E).
      Qed.
      Theorem model_compaction_step :
        (forall n i s, In n nums -> In s (lv v i) -> t_num s <> n) ->
        exists nv, finish c true v (compaction_edit cm outs) = POk nv /\ wf_lsm nv.
      Proof.
        intros F. apply (model_compaction_step_interleaved v W (fun _ _ => eq_refl) (fun _ H => H) (fun _ H => or_introl H) F).
      Qed.
    End Outputs.


    (* The entry-level hypotheses of ReorgProofs.compaction_preserves hold: M = the entries of the write buffers
       (newer than every table entry), the other stored entries are those of all tables that are not inputs. *)
    Section Admissible.
      Variable M : list entry.
      Variable minSeq : N.
      Hypothesis minSeq_lt : (minSeq < keyMaxSeq p)%N.
      Hypothesis M_uniq : uniq_in M.
      Hypothesis M_newer : forall m i x, In m M -> In x (LE (lv v i)) -> e_uk x = e_uk m -> (e_seq x < e_seq m)%N.

      Let others := filter (fun t => negb (is_input (nums_of (t0 ++ t1)) t)) (concat v).
      Let O := M ++ LE others.
      Let deeper := skipn (lvl + 2) v.

      Lemma others_src s : In s others -> exists j, In s (lv v j) /\ ~ In s t0 /\ ~ In s t1.
      Proof.
        unfold others. intros H. apply filter_In in H as [H1 H2]. destruct (in_concat_lv v s H1) as [j Hj].
        exists j. split; [exact Hj|]. apply Bool.negb_true_iff in H2.
        assert (N : forall t, In t (t0 ++ t1) -> t_num t <> t_num s).
        { apply memN_false. exact H2. }
        split; intros Hi; apply (N s); try reflexivity; apply in_or_app; [left|right]; exact Hi.
      Qed.

      Lemma I_src i : In i I -> (In i (LE (lv v lvl)) /\ exists t, In t t0 /\ In i (t_entries t)) \/
                                (In i (LE (lv v (S lvl))) /\ exists t, In t t1 /\ In i (t_entries t)).
      Proof.
        unfold I. rewrite LE_app. intros H. apply in_app_or in H as [H|H]; apply LE_in in H as [t [Ht Hi]].
        - left. split; [apply LE_in; exists t; split; [apply pk_t0; exact Ht|exact Hi]|exists t; split; assumption].
        - right. split; [apply LE_in; exists t; split; [apply pk_t1; exact Ht|exact Hi]|exists t; split; assumption].
      Qed.

      Lemma admissible_others o i : In o O -> In i I -> e_uk o = e_uk i ->
        (e_seq i < e_seq o)%N \/ ((e_seq o < e_seq i)%N /\ is_base c deeper (e_uk i) = false).
      Proof.
        intros Ho Hi Hu. unfold O in Ho. apply in_app_or in Ho as [Ho|Ho].
        { left. destruct (I_src i Hi) as [[H _]|[H _]]; apply (M_newer o _ i Ho H); congruence. }
        apply LE_in in Ho as [s [Hs Ho]]. destruct (others_src s Hs) as [j [Hj [N0 N1]]].
        assert (Hoj : In o (LE (lv v j))) by (apply LE_in; exists s; split; assumption).
        assert (Deep : S lvl < j -> is_base c deeper (e_uk i) = false).
        { intros Q. unfold is_base. apply Bool.not_true_iff_false. intros F. rewrite forallb_forall in F.
          assert (Hd : In s (concat deeper)) by (apply (in_lv_skipn v (lvl + 2) j s); [lia|exact Hj]).
          specialize (F s Hd). apply Bool.negb_true_iff in F. rewrite <- Hu in F.
          destruct (wl_tbl c p v W j s Hj) as [[Ss _] _].
          rewrite (pcovers_of_member c (comparer_ok_pre c ok) s o _ Ss Ho (cmp_refl c ok _)) in F. discriminate. }
        destruct (I_src i Hi) as [[Hil [t [Ht Hit]]]|[Hil [t [Ht Hit]]]].
        - destruct (Nat.lt_trichotomy j lvl) as [Q|[Q|Q]].
          + left. apply (wl_chain c p v W j lvl Q o i Hoj Hil Hu).
          + subst j. exfalso. apply N0. apply (pk_A1 s t o i Hj Ht Ho Hit Hu).
          + destruct (Nat.eq_dec j (S lvl)) as [->|Hne].
            * exfalso. destruct (pk_A2 s Hj N1) as [H|H].
              -- pose proof (H o i Ho Hi) as L. rewrite Hu, (cmp_refl c ok) in L. discriminate.
              -- pose proof (H i o Hi Ho) as L. rewrite Hu, (cmp_refl c ok) in L. discriminate.
            * right. split; [apply (wl_chain c p v W lvl j Q i o Hil Hoj (eq_sym Hu))|apply Deep; lia].
        - destruct (Nat.lt_trichotomy j (S lvl)) as [Q|[Q|Q]].
          + left. apply (wl_chain c p v W j (S lvl) Q o i Hoj Hil Hu).
          + subst j. exfalso. destruct (pk_A2 s Hj N1) as [H|H].
            * pose proof (H o i Ho Hi) as L. rewrite Hu, (cmp_refl c ok) in L. discriminate.
            * pose proof (H i o Hi Ho) as L. rewrite Hu, (cmp_refl c ok) in L. discriminate.
          + right. split; [apply (wl_chain c p v W (S lvl) j Q i o Hil Hoj (eq_sym Hu))|apply Deep; exact Q].
      Qed.

      Lemma admissible_uniq : uniq_in (I ++ O).
      Proof.
        assert (InV : forall x, In x I \/ In x (LE others) -> exists j, In x (LE (lv v j))).
        { intros x [H|H].
          - destruct (I_src x H) as [[H' _]|[H' _]]; eexists; exact H'.
          - apply LE_in in H as [s [Hs Hx]]. destruct (others_src s Hs) as [j [Hj _]]. exists j. apply LE_in. exists s. split; assumption. }
        assert (Cls : forall x, In x (I ++ O) -> In x M \/ exists j, In x (LE (lv v j))).
        { intros x H. apply in_app_or in H as [H|H]; [right; apply InV; left; exact H|].
          unfold O in H. apply in_app_or in H as [H|H]; [left; exact H|right; apply InV; right; exact H]. }
        intros a b Ha Hb Hu Hs. destruct (Cls a Ha) as [Ma|[ja Va]]; destruct (Cls b Hb) as [Mb|[jb Vb]].
        - apply M_uniq; assumption.
        - pose proof (M_newer a jb b Ma Vb (eq_sym Hu)). lia.
        - pose proof (M_newer b ja a Mb Va Hu). lia.
        - apply (wf_uniq_global c p v ja jb a b W Va Vb Hu Hs).
      Qed.

      Theorem model_compaction_admissible k s : (minSeq <= s)%N ->
        History.res p (newest c k s (compact_entries c p minSeq deeper (t0 ++ t1) ++ O) None) =
        History.res p (newest c k s (I ++ O) None).
      Proof.
        intros Hs. unfold compact_entries, merge_inputs.
        apply (compaction_preserves c ok p pok minSeq (is_base c deeper) minSeq_lt I O);
          [exact pk_I_kinds|exact pk_I_uniq|exact admissible_uniq|exact admissible_others|exact Hs].
      Qed.
    End Admissible.

    (* compaction.trivial() = true gives the shape model_move_step asks for *)
    Lemma trivial_shape maxgp : trivial sz cm maxgp = true -> exists t, t0 = [t] /\ t1 = [].
    Proof.
      unfold trivial. fold t0 t1. intros H. apply andb_prop in H as [H _]. apply andb_prop in H as [H0 H1].
      apply Nat.eqb_eq in H0, H1. destruct t0 as [|t [|t' r]]; try discriminate. destruct t1; [|discriminate].
      exists t. split; reflexivity.
    Qed.
  End Picked.
End Model.
