(* Lsm/OverlapProofs.v — what tFiles.getOverlaps / getRange / overlaps compute (model Lsm/Pick.v):
   - on an ordered, disjoint level the two binary searches return exactly the tables overlapping the range;
   - the level-0 restart loop terminates and returns a set that is closed: every table of the level sharing a user key
     with a returned table is returned;
   - getRange returns the smallest imin and the largest imax. *)
From GL Require Import Base.OrderProofs Lsm.Pick Lsm.PickBase.
From Coq Require Import Arith Lia.

Local Open Scope nat_scope.

Lemma get_overlaps_sorted_unfold c tf umin umax :
  get_overlaps_sorted c tf umin umax =
  if Nat.leb (ov_end c tf umax) (ov_begin c tf umin) then []
  else firstn (ov_end c tf umax - ov_begin c tf umin) (skipn (ov_begin c tf umin) tf).
Proof.
  unfold get_overlaps_sorted. destruct tf as [|t tf']; [|reflexivity].
  destruct (Nat.leb _ _); [reflexivity|]. rewrite skipn_nil, firstn_nil. reflexivity.
Qed.

Section Sorted.
  Variable c : comparer.
  Hypothesis ok : comparer_ok c.
  Variable p : kparams.

  Notation lt := (Order.lt c).
  Notation le := (Order.le c).
  Notation umin_of := Pick.umin_of.
  Notation umax_of := Pick.umax_of.

  Variable tf : list table.
  Hypothesis Hok : forall t, In t tf -> tbl_ok c p t.
  Hypothesis Hb : bsorted c tf.

  Let n := length tf.

  Lemma nth_ok i : i < n -> tbl_ok c p (tnth tf i).
  Proof. intros H. apply Hok. apply nth_In. exact H. Qed.

  (* sort.Search for the first table whose key exceeds m, the keys increasing along the level *)
  Lemma search_ukey_spec (key : table -> bytes) m :
    (forall a b, a <= b -> b < n -> le (key (tnth tf a)) (key (tnth tf b))) ->
    let r := sort_search n (fun i => match cmp c (key (tnth tf i)) m with Gt => true | _ => false end) in
    r <= n /\ (forall i, i < r -> le (key (tnth tf i)) m) /\ (forall i, r <= i -> i < n -> lt m (key (tnth tf i))).
  Proof.
    intros Hmono. set (f := fun i => match cmp c (key (tnth tf i)) m with Gt => true | _ => false end).
    assert (Hf : forall i, f i = true <-> lt m (key (tnth tf i))).
    { intros i. unfold f. rewrite <- (cmp_gt_iff c ok). destruct (cmp c (key (tnth tf i)) m); split; congruence. }
    assert (Hm : monotone f 0 n).
    { intros a b _ Hab Hbn Fa. apply Hf. apply (OrderProofs.lt_le_trans c ok _ (key (tnth tf a))); [apply Hf; exact Fa|].
      apply Hmono; assumption. }
    destruct (sort_search_spec n f Hm) as [K1 [K2 K3]]. cbv zeta. split; [exact K1|]. split.
    - intros i Hi. specialize (K2 i Hi). unfold f in K2. unfold Order.le.
      destruct (cmp c (key (tnth tf i)) m); congruence.
    - intros i Hi Hn. apply Hf. apply K3; assumption.
  Qed.

  Lemma search_min_ukey_spec m :
    search_min_ukey c tf m <= n /\
    (forall i, i < search_min_ukey c tf m -> le (umin_of (tnth tf i)) m) /\
    (forall i, search_min_ukey c tf m <= i -> i < n -> lt m (umin_of (tnth tf i))).
  Proof. apply (search_ukey_spec umin_of). intros a b. apply (bsorted_umin_mono c ok p tf a b Hok Hb). Qed.

  Lemma search_max_ukey_spec m :
    search_max_ukey c tf m <= n /\
    (forall i, i < search_max_ukey c tf m -> le (umax_of (tnth tf i)) m) /\
    (forall i, search_max_ukey c tf m <= i -> i < n -> lt m (umax_of (tnth tf i))).
  Proof. apply (search_ukey_spec umax_of). intros a b. apply (bsorted_umax_mono c ok p tf a b Hok Hb). Qed.

  (* begin = the first table that is not entirely before umin *)
  Lemma ov_begin_spec umin i : i < n -> (ov_begin c tf umin <= i <-> t_after c (tnth tf i) umin = false).
  Proof.
    intros Hi. destruct umin as [m|]; cbn [ov_begin t_after]; [|split; [reflexivity|lia]].
    destruct (search_min_ukey_spec m) as [K1 [K2 K3]].
    fold (t_after c (tnth tf i) (Some m)). rewrite (t_after_false c ok).
    destruct (search_min_ukey c tf m) as [|i1] eqn:E.
    - split; [intros _|lia].
      eapply (OrderProofs.le_trans c ok); [apply (OrderProofs.lt_le c); apply (K3 i); lia|].
      apply (tbl_valid c ok p). apply nth_ok. exact Hi.
    - assert (Hi1 : i1 < n) by lia.
      assert (Above : forall j, S i1 <= j -> j < n -> le m (umax_of (tnth tf j))).
      { intros j H1 H2. eapply (OrderProofs.le_trans c ok); [apply (OrderProofs.lt_le c); apply (K3 j); lia|].
        apply (tbl_valid c ok p). apply nth_ok. exact H2. }
      assert (Below : forall j, j < i1 -> lt (umax_of (tnth tf j)) m).
      { intros j H1. eapply (OrderProofs.lt_le_trans c ok); [apply (Hb j i1); lia|]. apply K2. lia. }
      destruct (cmp c (umax_of (tnth tf i1)) m) eqn:C1.
      2:{ (* strictly before umin *)
        split.
        * intros H. apply Above; lia.
        * intros H. destruct (Nat.lt_ge_cases i (S i1)) as [Q|Q]; [|exact Q]. exfalso.
          assert (L : lt (umax_of (tnth tf i)) m).
          { destruct (Nat.eq_dec i i1) as [->|Hne]; [exact C1|apply Below; lia]. }
          apply (ult_not_le c ok _ _ L H). }
      (* equal or above: the file before overlaps *)
      all: assert (Q1 : le m (umax_of (tnth tf i1))) by (apply (ule_iff_not_lt c ok); unfold Order.lt; rewrite C1; discriminate).
      all: split;
        [intros H; destruct (Nat.eq_dec i i1) as [->|Hne]; [exact Q1|apply Above; lia]
        |intros H; destruct (Nat.lt_ge_cases i i1) as [Q|Q]; [|exact Q]; exfalso; apply (ult_not_le c ok _ _ (Below i Q) H)].
  Qed.

  (* end = one past the last table that is not entirely after umax *)
  Lemma ov_end_spec umax : ov_end c tf umax <= n /\
    forall i, i < n -> (i < ov_end c tf umax <-> t_before c (tnth tf i) umax = false).
  Proof.
    destruct umax as [m|]; cbn [ov_end t_before]; [|split; [fold n; lia|intros i Hi; fold n; split; [reflexivity|lia]]].
    destruct (search_max_ukey_spec m) as [K1 [K2 K3]]. fold n.
    destruct (Nat.eqb (search_max_ukey c tf m) n) eqn:E.
    - apply Nat.eqb_eq in E. split; [lia|]. intros i Hi. fold (t_before c (tnth tf i) (Some m)).
      rewrite (t_before_false c ok). split; [intros _|lia].
      eapply (OrderProofs.le_trans c ok); [apply (tbl_valid c ok p); apply nth_ok; exact Hi|]. apply K2. lia.
    - apply Nat.eqb_neq in E. set (ix := search_max_ukey c tf m) in *.
      assert (Hix : ix < n) by lia.
      assert (Below : forall j, j < ix -> le (umin_of (tnth tf j)) m).
      { intros j H1. eapply (OrderProofs.le_trans c ok); [apply (tbl_valid c ok p); apply nth_ok; lia|]. apply K2. exact H1. }
      assert (Above : forall j, ix < j -> j < n -> lt m (umin_of (tnth tf j))).
      { intros j H1 H2. eapply (OrderProofs.lt_trans c ok); [apply (K3 ix); lia|]. apply (Hb ix j); lia. }
      destruct (cmp c (umin_of (tnth tf ix)) m) eqn:C1.
      3:{ apply (cmp_gt_iff c ok) in C1. split; [lia|]. intros i Hi. fold (t_before c (tnth tf i) (Some m)).
        rewrite (t_before_false c ok). split.
        * intros H. apply Below. exact H.
        * intros H. destruct (Nat.lt_ge_cases i ix) as [Q|Q]; [exact Q|]. exfalso.
          assert (L : lt m (umin_of (tnth tf i))).
          { destruct (Nat.eq_dec i ix) as [->|Hne]; [exact C1|apply Above; lia]. }
          apply (ult_not_le c ok _ _ L H). }
      (* equal or below: the file at the index overlaps *)
      all: assert (Q1 : le (umin_of (tnth tf ix)) m) by (unfold Order.le; rewrite C1; discriminate).
      all: split; [lia|]; intros i Hi; fold (t_before c (tnth tf i) (Some m)); rewrite (t_before_false c ok); split;
        [intros H; destruct (Nat.eq_dec i ix) as [->|Hne]; [exact Q1|apply Below; lia]
        |intros H; destruct (Nat.lt_ge_cases ix i) as [Q|Q]; [|lia]; exfalso; apply (ult_not_le c ok _ _ (Above i Q Hi) H)].
  Qed.

  (* the binary-search variant returns exactly the overlapping tables (as a contiguous slice) *)
  Theorem get_overlaps_sorted_in umin umax t :
    In t (get_overlaps_sorted c tf umin umax) <-> In t tf /\ t_overlaps c t umin umax = true.
  Proof.
    rewrite get_overlaps_sorted_unfold.
    destruct (ov_end_spec umax) as [E1 E2].
    pose proof (ov_begin_spec umin) as B.
    assert (Ov : forall i, i < n -> (t_overlaps c (tnth tf i) umin umax = true <->
                                     ov_begin c tf umin <= i /\ i < ov_end c tf umax)).
    { intros i Hi. unfold t_overlaps. rewrite Bool.andb_true_iff, !Bool.negb_true_iff, (B i Hi), (E2 i Hi). tauto. }
    destruct (Nat.leb (ov_end c tf umax) (ov_begin c tf umin)) eqn:L.
    - apply Nat.leb_le in L. split; [intros []|]. intros [Ht Ho].
      apply (in_nth_ex no_table) in Ht as [i [Hi <-]]. apply (Ov i Hi) in Ho. lia.
    - apply Nat.leb_gt in L. rewrite (in_slice_nth no_table). split.
      + intros [i [H1 [H2 [H3 H4]]]]. subst t. split; [apply nth_In; exact H3|]. apply (Ov i H3). lia.
      + intros [Ht Ho]. apply (in_nth_ex no_table) in Ht as [i [Hi <-]]. apply (Ov i Hi) in Ho.
        exists i. repeat split; try lia.
  Qed.
End Sorted.

Section Level0.
  Variable c : comparer.
  Hypothesis ok : comparer_ok c.
  Variable p : kparams.

  Notation lt := (Order.lt c).
  Notation le := (Order.le c).
  Notation umin_of := Pick.umin_of.
  Notation umax_of := Pick.umax_of.

  Definition needs_min (t : table) (umin : option bytes) : bool :=
    match umin with Some m => ltb c (umin_of t) m | None => false end.
  Definition needs_max (t : table) (umax : option bytes) : bool :=
    match umax with Some m => ltb c m (umax_of t) | None => false end.

  Lemma ov_pass_done rest umin umax : forall dst d,
    ov_pass c rest umin umax dst = PDone d ->
    d = dst ++ filter (fun t => t_overlaps c t umin umax) rest /\
    (forall t, In t rest -> t_overlaps c t umin umax = true -> needs_min t umin = false /\ needs_max t umax = false).
  Proof.
    induction rest as [|t rest IH]; intros dst d H; cbn [ov_pass] in H.
    - injection H as <-. cbn [filter]. rewrite app_nil_r. split; [reflexivity|intros t []].
    - cbn [filter]. destruct (t_overlaps c t umin umax) eqn:O.
      + fold (needs_min t umin) in H. fold (needs_max t umax) in H.
        destruct (needs_min t umin) eqn:N1; [discriminate|]. destruct (needs_max t umax) eqn:N2; [discriminate|].
        destruct (IH _ _ H) as [E F]. split; [rewrite E, <- app_assoc; reflexivity|].
        intros t' [<-|Ht'] Ho; [split; assumption|apply F; assumption].
      + destruct (IH _ _ H) as [E F]. split; [exact E|].
        intros t' [<-|Ht'] Ho; [congruence|apply F; assumption].
  Qed.

  Lemma ov_pass_restart rest umin umax : forall dst a b,
    ov_pass c rest umin umax dst = PRestart a b ->
    exists t, In t rest /\
      ((needs_min t umin = true /\ a = Some (umin_of t) /\ b = umax) \/
       (needs_max t umax = true /\ a = umin /\ b = Some (umax_of t))).
  Proof.
    induction rest as [|t rest IH]; intros dst a b H; cbn [ov_pass] in H; [discriminate|].
    destruct (t_overlaps c t umin umax) eqn:O.
    - fold (needs_min t umin) in H. fold (needs_max t umax) in H.
      destruct (needs_min t umin) eqn:N1.
      + injection H as <- <-. exists t. split; [left; reflexivity|]. left. split; [exact N1|split; reflexivity].
      + destruct (needs_max t umax) eqn:N2.
        * injection H as <- <-. exists t. split; [left; reflexivity|]. right. split; [exact N2|split; reflexivity].
        * destruct (IH _ _ _ H) as [t' [Ht' R]]. exists t'. split; [right; exact Ht'|exact R].
    - destruct (IH _ _ _ H) as [t' [Ht' R]]. exists t'. split; [right; exact Ht'|exact R].
  Qed.

  Lemma filter_length_lt {A} (P Q : A -> bool) (l : list A) t :
    (forall x, P x = true -> Q x = true) -> In t l -> Q t = true -> P t = false ->
    length (filter P l) < length (filter Q l).
  Proof.
    intros PQ. induction l as [|x l IH]; intros Ht Qt Pt; [destruct Ht|]. cbn [filter].
    assert (Le : length (filter P l) <= length (filter Q l)).
    { clear -PQ. induction l as [|y l IHl]; [cbn; lia|]. cbn [filter].
      destruct (P y) eqn:Py; [rewrite (PQ y Py); cbn [length]; lia|]. destruct (Q y); cbn [length]; lia. }
    destruct Ht as [->|Ht].
    - rewrite Pt, Qt. cbn [length]. lia.
    - specialize (IH Ht Qt Pt). destruct (P x) eqn:Px; [rewrite (PQ x Px); cbn [length]; lia|].
      destruct (Q x); cbn [length]; lia.
  Qed.

  Lemma filter_len_le {A} (P : A -> bool) (l : list A) : length (filter P l) <= length l.
  Proof. induction l as [|x l IH]; [cbn; lia|]. cbn [filter]. destruct (P x); cbn [length]; lia. Qed.

  Definition meas (tf : list table) (umin umax : option bytes) : nat :=
    length (filter (fun t => needs_min t umin) tf) + length (filter (fun t => needs_max t umax) tf).

  Lemma meas_bound tf umin umax : meas tf umin umax <= 2 * length tf.
  Proof.
    unfold meas. pose proof (filter_len_le (fun t => needs_min t umin) tf).
    pose proof (filter_len_le (fun t => needs_max t umax) tf). lia.
  Qed.

  Lemma meas_dec_min tf t umin umax : In t tf -> needs_min t umin = true ->
    meas tf (Some (umin_of t)) umax < meas tf umin umax.
  Proof.
    intros Ht N. unfold meas. apply Nat.add_lt_mono_r.
    destruct umin as [m|]; [|discriminate]. cbn [needs_min] in N. apply (ltb_lt c) in N.
    apply (filter_length_lt _ _ tf t); [|exact Ht| |].
    - intros x Px. cbn [needs_min] in *. apply (ltb_lt c) in Px. apply (ltb_lt c).
      eapply (OrderProofs.lt_trans c ok); eauto.
    - cbn [needs_min]. apply (ltb_lt c). exact N.
    - cbn [needs_min]. destruct (ltb c (umin_of t) (umin_of t)) eqn:E; [|reflexivity].
      apply (ltb_lt c) in E. exfalso. apply (OrderProofs.lt_irrefl c ok _ E).
  Qed.

  Lemma meas_dec_max tf t umin umax : In t tf -> needs_max t umax = true ->
    meas tf umin (Some (umax_of t)) < meas tf umin umax.
  Proof.
    intros Ht N. unfold meas. apply Nat.add_lt_mono_l.
    destruct umax as [m|]; [|discriminate]. cbn [needs_max] in N. apply (ltb_lt c) in N.
    apply (filter_length_lt _ _ tf t); [|exact Ht| |].
    - intros x Px. cbn [needs_max] in *. apply (ltb_lt c) in Px. apply (ltb_lt c).
      eapply (OrderProofs.lt_trans c ok); eauto.
    - cbn [needs_max]. apply (ltb_lt c). exact N.
    - cbn [needs_max]. destruct (ltb c (umax_of t) (umax_of t)) eqn:E; [|reflexivity].
      apply (ltb_lt c) in E. exfalso. apply (OrderProofs.lt_irrefl c ok _ E).
  Qed.

  (* [a,b] contains [umin,umax] *)
  Definition wider_lo (a umin : option bytes) : Prop :=
    match a, umin with
    | None, _ => True
    | Some m', Some m => le m' m
    | Some _, None => False
    end.
  Definition wider_hi (b umax : option bytes) : Prop :=
    match b, umax with
    | None, _ => True
    | Some m', Some m => le m m'
    | Some _, None => False
    end.

  Lemma wider_lo_refl a : wider_lo a a.
  Proof. destruct a; cbn; [apply (OrderProofs.le_refl c ok)|exact I]. Qed.
  Lemma wider_hi_refl a : wider_hi a a.
  Proof. destruct a; cbn; [apply (OrderProofs.le_refl c ok)|exact I]. Qed.
  Lemma wider_lo_trans a b d : wider_lo a b -> wider_lo b d -> wider_lo a d.
  Proof.
    destruct a, b, d; cbn; try tauto. intros H1 H2. eapply (OrderProofs.le_trans c ok); eauto.
  Qed.
  Lemma wider_hi_trans a b d : wider_hi a b -> wider_hi b d -> wider_hi a d.
  Proof.
    destruct a, b, d; cbn; try tauto. intros H1 H2. eapply (OrderProofs.le_trans c ok); eauto.
  Qed.

  Lemma overlaps_wider t a b umin umax : wider_lo a umin -> wider_hi b umax ->
    t_overlaps c t umin umax = true -> t_overlaps c t a b = true.
  Proof.
    intros W1 W2. unfold t_overlaps. rewrite !Bool.andb_true_iff, !Bool.negb_true_iff. intros [H1 H2]. split.
    - destruct a as [m'|]; [|reflexivity]. destruct umin as [m|]; [|destruct W1].
      apply (t_after_false c ok). apply (t_after_false c ok) in H1. eapply (OrderProofs.le_trans c ok); eauto.
    - destruct b as [m'|]; [|reflexivity]. destruct umax as [m|]; [|destruct W2].
      apply (t_before_false c ok). apply (t_before_false c ok) in H2. eapply (OrderProofs.le_trans c ok); eauto.
  Qed.

  (* what the loop returns: the tables overlapping a widened range none of which sticks out of it *)
  Definition l0_result (tf : list table) (umin umax : option bytes) (d : list table) : Prop :=
    exists a b, wider_lo a umin /\ wider_hi b umax /\
      d = filter (fun t => t_overlaps c t a b) tf /\
      (forall t, In t d -> needs_min t a = false /\ needs_max t b = false).

  Lemma ov_loop_spec fuel : forall tf umin umax, meas tf umin umax < fuel ->
    exists d, ov_loop c fuel tf umin umax = POk d /\ l0_result tf umin umax d.
  Proof.
    induction fuel as [|fu IH]; intros tf umin umax Hm; [lia|]. cbn [ov_loop].
    destruct (ov_pass c tf umin umax []) as [d|a b] eqn:E.
    - exists d. split; [reflexivity|]. destruct (ov_pass_done _ _ _ _ _ E) as [E1 E2]. cbn [app] in E1.
      exists umin, umax. split; [apply wider_lo_refl|]. split; [apply wider_hi_refl|]. split; [exact E1|].
      intros t Ht. rewrite E1 in Ht. apply filter_In in Ht as [H1 H2]. apply E2; assumption.
    - destruct (ov_pass_restart _ _ _ _ _ _ E) as [t [Ht [[N [-> ->]]|[N [-> ->]]]]].
      + pose proof (meas_dec_min tf t umin umax Ht N) as D.
        destruct (IH tf (Some (umin_of t)) umax ltac:(lia)) as [d [R [a [b [W1 [W2 [F1 F2]]]]]]].
        exists d. split; [exact R|]. exists a, b. split; [|split; [exact W2|split; assumption]].
        eapply wider_lo_trans; [exact W1|]. destruct umin as [m|]; [|discriminate].
        cbn [needs_min] in N. apply (ltb_lt c) in N. cbn. apply (OrderProofs.lt_le c). exact N.
      + pose proof (meas_dec_max tf t umin umax Ht N) as D.
        destruct (IH tf umin (Some (umax_of t)) ltac:(lia)) as [d [R [a [b [W1 [W2 [F1 F2]]]]]]].
        exists d. split; [exact R|]. exists a, b. split; [exact W1|split; [|split; assumption]].
        eapply wider_hi_trans; [exact W2|]. destruct umax as [m|]; [|discriminate].
        cbn [needs_max] in N. apply (ltb_lt c) in N. cbn. apply (OrderProofs.lt_le c). exact N.
  Qed.

  Theorem get_overlaps_l0_spec tf umin umax :
    exists d, get_overlaps c tf umin umax true = POk d /\ l0_result tf umin umax d.
  Proof.
    unfold get_overlaps. destruct tf as [|t tf'] eqn:E.
    - exists []. split; [reflexivity|]. exists umin, umax.
      split; [apply wider_lo_refl|]. split; [apply wider_hi_refl|]. split; [reflexivity|intros t []].
    - rewrite <- E. apply ov_loop_spec. pose proof (meas_bound tf umin umax). lia.
  Qed.

  (* consequences used by the picker proof *)
  Lemma l0_result_incl tf umin umax d : l0_result tf umin umax d -> incl d tf.
  Proof. intros [a [b [_ [_ [-> _]]]]] t Ht. apply filter_In in Ht. apply Ht. Qed.

  Lemma l0_result_seeds tf umin umax d t : l0_result tf umin umax d ->
    In t tf -> t_overlaps c t umin umax = true -> In t d.
  Proof.
    intros [a [b [W1 [W2 [-> _]]]]] Ht Ho. apply filter_In. split; [exact Ht|].
    eapply overlaps_wider; eauto.
  Qed.

  (* closure: a table of the level overlapping the user-key hull of returned tables is returned *)
  Definition hull_closed (tf d : list table) : Prop :=
    forall s ta tb, In s tf -> In ta d -> In tb d ->
      t_overlaps c s (Some (umin_of ta)) (Some (umax_of tb)) = true -> In s d.

  Lemma l0_result_hull tf umin umax d : l0_result tf umin umax d -> hull_closed tf d.
  Proof.
    intros [a [b [W1 [W2 [E F]]]]] s ta tb Hs Ha Hb Ho.
    destruct (F ta Ha) as [N1 _]. destruct (F tb Hb) as [_ N2].
    rewrite E. apply filter_In. split; [exact Hs|].
    apply (overlaps_wider s a b (Some (umin_of ta)) (Some (umax_of tb))); [| |exact Ho].
    - destruct a as [m|]; [|exact I]. cbn [needs_min] in N1. cbn. apply (not_lt_le c ok).
      intros L. apply (ltb_lt c) in L. congruence.
    - destruct b as [m|]; [|exact I]. cbn [needs_max] in N2. cbn. apply (not_lt_le c ok).
      intros L. apply (ltb_lt c) in L. congruence.
  Qed.

  (* closure: a table of the level sharing a user key with a returned table is returned *)
  Lemma l0_result_closed tf umin umax d s t x y : l0_result tf umin umax d ->
    (forall t, In t tf -> tbl_ok c p t) ->
    In s tf -> In t d -> In x (t_entries s) -> In y (t_entries t) -> e_uk x = e_uk y -> In s d.
  Proof.
    intros R Hok Hs Ht Hx Hy Hu. apply (l0_result_hull _ _ _ _ R s t t Hs Ht Ht).
    apply (overlaps_of_key c ok p s x _ _ (Hok s Hs) Hx). rewrite Hu.
    apply (tbl_bounds c ok p t y (Hok t (l0_result_incl _ _ _ _ R t Ht)) Hy).
  Qed.
End Level0.
