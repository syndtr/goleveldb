(* Lsm/BuilderBase.v — compaction.baseLevelForKey with its per-level cursors (Builder.base_levels) answers exactly the
   stateless test Compact.is_base, provided the levels below the output level are ordered and disjoint, and the keys are
   asked in non-decreasing order (cursor invariant: every table before a cursor ends before the key). *)
From GL Require Import Base.OrderProofs Lsm.LsmProofs Lsm.PickBase Lsm.Builder.
From Coq Require Import Lia.

Local Open Scope nat_scope.

Section Base.
  Variable c : comparer.
  Hypothesis ok : comparer_ok c.
  Variable p : kparams.

  Notation lt := (Order.lt c).
  Notation le := (Order.le c).

  Definition lvl_ok (tables : list table) : Prop :=
    (forall t, In t tables -> tbl_ok c p t) /\ level_sorted c tables.

  Definition ptr_ok (u : bytes) (tables : list table) (ptr : nat) : Prop :=
    forall t, In t (firstn ptr tables) -> lt (umax_of t) u.

  Lemma ptr_ok_mono u u' tables ptr : le u u' -> ptr_ok u tables ptr -> ptr_ok u' tables ptr.
  Proof. intros H P t Ht. apply (OrderProofs.lt_le_trans c ok _ u); [apply P; exact Ht|exact H]. Qed.

  Lemma covers_iff t u : tbl_ok c p t -> t_covers c t u = Order.leb c (umin_of t) u && Order.leb c u (umax_of t).
  Proof.
    intros [_ Hne]. unfold t_covers. rewrite (t_first_lo t Hne), (t_last_hi t Hne). reflexivity.
  Qed.

  Lemma not_covers_after t u : tbl_ok c p t -> lt (umax_of t) u -> t_covers c t u = false.
  Proof.
    intros Ht H. rewrite (covers_iff t u Ht). apply Bool.andb_false_intro2.
    unfold Order.leb. apply (OrderProofs.cmp_lt_gt c ok) in H. rewrite H. reflexivity.
  Qed.

  Lemma not_covers_before t u : tbl_ok c p t -> lt u (umin_of t) -> t_covers c t u = false.
  Proof.
    intros Ht H. rewrite (covers_iff t u Ht). apply Bool.andb_false_intro1.
    unfold Order.leb. apply (OrderProofs.cmp_lt_gt c ok) in H. rewrite H. reflexivity.
  Qed.

  Lemma base_scan_spec u : forall rest ptr, lvl_ok rest ->
    let r := base_scan c rest ptr u in
    fst r = existsb (fun t => t_covers c t u) rest /\
    exists n, snd r = ptr + n /\ forall t, In t (firstn n rest) -> lt (umax_of t) u.
  Proof.
    induction rest as [|t rest IH]; intros ptr [Hok Hs]; cbn zeta.
    - cbn [base_scan fst snd existsb]. split; [reflexivity|]. exists 0. split; [lia|]. intros t [].
    - cbn [base_scan existsb].
      assert (Ht : tbl_ok c p t) by (apply Hok; left; reflexivity).
      assert (Hr : lvl_ok rest) by (split; [intros x Hx; apply Hok; right; exact Hx|apply Hs]).
      destruct (ule_or_lt c ok u (umax_of t)) as [Q|L].
      + (* u <= umax: this table decides *)
        assert (M : forall (X Y : bool * nat), match cmp c u (umax_of t) with Gt => X | _ => Y end = Y)
          by (intros X Y; unfold Order.le in Q; destruct (cmp c u (umax_of t)); congruence).
        rewrite M. cbn [fst snd]. split; [|exists 0; split; [lia|intros x []]].
        rewrite (covers_iff t u Ht), (proj2 (leb_le c u (umax_of t)) Q), Bool.andb_true_r.
        assert (Hrest : existsb (fun t0 => t_covers c t0 u) rest = false).
        { apply Bool.not_true_is_false. intros Hex. apply existsb_exists in Hex as [t' [Ht' Hc]].
          rewrite (not_covers_before t' u) in Hc; [discriminate|apply Hok; right; exact Ht'|].
          destruct Hs as [Hall _]. rewrite Forall_forall in Hall.
          apply (OrderProofs.le_lt_trans c ok _ (umax_of t)); [exact Q|].
          apply (Hall t' Ht'); [apply t_hi_in; apply Ht|apply t_lo_in; apply (Hok t'); right; exact Ht']. }
        rewrite Hrest, Bool.orb_false_r. unfold Order.leb. rewrite (cmp_opp c ok u (umin_of t)).
        destruct (cmp c u (umin_of t)); reflexivity.
      + rewrite (proj2 (OrderProofs.cmp_gt_lt c ok u (umax_of t)) L).
        destruct (IH (S ptr) Hr) as [I1 [n [I2 I3]]]. split.
        * rewrite I1. rewrite (not_covers_after t u Ht L). reflexivity.
        * exists (S n). split; [rewrite I2; lia|]. intros x [<-|Hx]; [exact L|apply I3; exact Hx].
  Qed.

  Lemma existsb_split {A} (f : A -> bool) n l : existsb f l = existsb f (firstn n l) || existsb f (skipn n l).
  Proof. rewrite <- existsb_app, firstn_skipn. reflexivity. Qed.

  Lemma firstn_add {A} a b (l : list A) : firstn (a + b) l = firstn a l ++ firstn b (skipn a l).
  Proof.
    revert l; induction a as [|a IH]; intros l; [reflexivity|]. destruct l as [|x l]; cbn [plus firstn skipn app].
    - rewrite firstn_nil. reflexivity.
    - rewrite IH. reflexivity.
  Qed.

  (* one level: the cursor scan answers "some table of the level covers the key" and keeps the cursor invariant *)
  Lemma level_scan_spec u tables ptr : lvl_ok tables -> ptr_ok u tables ptr ->
    let r := base_scan c (skipn ptr tables) ptr u in
    fst r = existsb (fun t => t_covers c t u) tables /\ ptr_ok u tables (snd r).
  Proof.
    intros [Hok Hs] P. cbn zeta.
    assert (Hr : lvl_ok (skipn ptr tables)).
    { split; [intros t Ht; apply Hok; rewrite <- (firstn_skipn ptr tables); apply in_or_app; right; exact Ht|].
      apply (level_sorted_skipn c ptr tables Hs). }
    destruct (base_scan_spec u (skipn ptr tables) ptr Hr) as [S1 [n [S2 S3]]]. split.
    - rewrite S1. rewrite (existsb_split _ ptr tables).
      assert (F : existsb (fun t => t_covers c t u) (firstn ptr tables) = false).
      { apply Bool.not_true_is_false. intros Hex. apply existsb_exists in Hex as [t [Ht Hc]].
        rewrite (not_covers_after t u) in Hc; [discriminate| |apply P; exact Ht].
        apply Hok. rewrite <- (firstn_skipn ptr tables). apply in_or_app. left. exact Ht. }
      rewrite F. reflexivity.
    - rewrite S2. intros t Ht. rewrite firstn_add in Ht. apply in_app_or in Ht as [Ht|Ht]; [apply P; exact Ht|apply S3; exact Ht].
  Qed.

  Definition ptrs_ok (u : bytes) (lvls : list (list table)) (ptrs : list nat) : Prop := Forall2 (ptr_ok u) lvls ptrs.

  Lemma ptrs_ok_mono u u' lvls ptrs : le u u' -> ptrs_ok u lvls ptrs -> ptrs_ok u' lvls ptrs.
  Proof.
    intros H F. induction F as [|tb ptr lvls ptrs P F IH]; constructor; [|exact IH].
    apply (ptr_ok_mono u u' tb ptr H P).
  Qed.

  Lemma ptrs_ok_init u lvls : ptrs_ok u lvls (repeat 0 (length lvls)).
  Proof. induction lvls as [|tb lvls IH]; cbn [length repeat]; constructor; [intros t []|exact IH]. Qed.

  Theorem base_levels_spec u : forall lvls ptrs, Forall lvl_ok lvls -> ptrs_ok u lvls ptrs ->
    let r := base_levels c lvls ptrs u in
    fst r = is_base c lvls u /\ ptrs_ok u lvls (snd r).
  Proof.
    induction lvls as [|tb lvls IH]; intros ptrs Hok P; cbn zeta.
    - inversion P; subst. cbn [base_levels fst snd]. split; [reflexivity|constructor].
    - inversion P as [|tb' ptr lvls' pr Pp Pr]; subst. inversion Hok as [|x y Htb Hrest]; subst.
      cbn [base_levels]. unfold is_base. cbn [concat]. rewrite forallb_app.
      destruct (level_scan_spec u tb ptr Htb Pp) as [L1 L2].
      destruct (base_scan c (skipn ptr tb) ptr u) as [covered ptr'] eqn:E. cbn [fst snd] in L1, L2.
      assert (Hf : forallb (fun t => negb (t_covers c t u)) tb = negb covered).
      { rewrite L1. clear. induction tb as [|t tb IH]; [reflexivity|]. cbn [forallb existsb].
        rewrite IH, Bool.negb_orb. reflexivity. }
      rewrite Hf. destruct covered; cbn [negb andb fst snd].
      + split; [reflexivity|]. constructor; assumption.
      + destruct (IH pr Hrest Pr) as [I1 I2].
        destruct (base_levels c lvls pr u) as [b pr'] eqn:E2. cbn [fst snd] in *.
        split; [exact I1|]. constructor; assumption.
  Qed.
End Base.
