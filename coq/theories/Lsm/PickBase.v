(* Lsm/PickBase.v — groundwork for the picker proofs: sort.Search finds the boundary of a monotone predicate;
   slices; bounds of a table; ordered lists of tables in index form. *)
From GL Require Import Base.OrderPre Base.OrderProofs Codec.IKeyProofs Lsm.LsmProofs Lsm.WfProofs Lsm.Pick.
From Coq Require Import Arith Lia.

Local Open Scope nat_scope.

Lemma div2_mid i j : i < j -> i <= Nat.div2 (i + j) /\ Nat.div2 (i + j) < j.
Proof.
  intros H. rewrite Nat.div2_div.
  pose proof (Nat.div_mod (i + j) 2 ltac:(lia)) as D.
  pose proof (Nat.mod_upper_bound (i + j) 2 ltac:(lia)) as M. lia.
Qed.

Definition monotone (f : nat -> bool) (i j : nat) : Prop :=
  forall a b, i <= a -> a <= b -> b < j -> f a = true -> f b = true.

Lemma bsearch_spec f fuel : forall i j, i <= j -> j - i <= fuel -> monotone f i j ->
  i <= bsearch fuel f i j <= j /\
  (forall a, i <= a -> a < bsearch fuel f i j -> f a = false) /\
  (forall a, bsearch fuel f i j <= a -> a < j -> f a = true).
Proof.
  induction fuel as [|fu IH]; intros i j Hij Hf Hm; cbn [bsearch].
  - assert (i = j) by lia. subst. repeat split; intros; lia.
  - destruct (Nat.ltb i j) eqn:L.
    2:{ apply Nat.ltb_ge in L. assert (i = j) by lia. subst. repeat split; intros; lia. }
    apply Nat.ltb_lt in L. destruct (div2_mid i j L) as [H1 H2].
    set (h := Nat.div2 (i + j)) in *. cbv zeta.
    destruct (f h) eqn:Fh.
    + assert (Hm' : monotone f i h) by (intros a b Ha Hab Hb; apply Hm; lia).
      destruct (IH i h H1 ltac:(lia) Hm') as [K1 [K2 K3]].
      split; [lia|]. split; [exact K2|].
      intros a Ha Hj. destruct (Nat.lt_ge_cases a h) as [Q|Q]; [apply K3; assumption|].
      apply (Hm h a); try lia. exact Fh.
    + assert (Hm' : monotone f (S h) j) by (intros a b Ha Hab Hb; apply Hm; lia).
      destruct (IH (S h) j ltac:(lia) ltac:(lia) Hm') as [K1 [K2 K3]].
      split; [lia|]. split; [|exact K3].
      intros a Ha Hk. destruct (Nat.lt_ge_cases h a) as [Q|Q]; [apply K2; lia|].
      destruct (f a) eqn:Fa; [|reflexivity].
      rewrite (Hm a h Ha Q H2 Fa) in Fh. discriminate.
Qed.

Lemma sort_search_spec n f : monotone f 0 n ->
  sort_search n f <= n /\
  (forall a, a < sort_search n f -> f a = false) /\
  (forall a, sort_search n f <= a -> a < n -> f a = true).
Proof.
  intros Hm. unfold sort_search.
  destruct (bsearch_spec f n 0 n ltac:(lia) ltac:(lia) Hm) as [K1 [K2 K3]].
  split; [lia|]. split; [intros a Ha; apply K2; lia|exact K3].
Qed.

Lemma in_firstn_nth {A} (d : A) k (l : list A) x :
  In x (firstn k l) <-> exists i, i < k /\ i < length l /\ nth i l d = x.
Proof.
  revert k; induction l as [|y l IH]; intros k.
  - rewrite firstn_nil. split; [intros []|intros [i [_ [H _]]]; cbn in H; lia].
  - destruct k as [|k]; cbn [firstn].
    + split; [intros []|intros [i [H _]]; lia].
    + cbn [In]. rewrite IH. split.
      * intros [<-|[i [H1 [H2 H3]]]]; [exists 0; cbn; repeat split; lia|].
        exists (S i). cbn [length nth]. repeat split; try lia. exact H3.
      * intros [[|i] [H1 [H2 H3]]]; cbn [nth length] in *; [left; exact H3|].
        right. exists i. repeat split; try lia. exact H3.
Qed.

Lemma in_skipn_nth {A} (d : A) k (l : list A) x :
  In x (skipn k l) <-> exists i, k <= i /\ i < length l /\ nth i l d = x.
Proof.
  revert k; induction l as [|y l IH]; intros k.
  - rewrite skipn_nil. split; [intros []|intros [i [_ [H _]]]; cbn in H; lia].
  - destruct k as [|k]; cbn [skipn].
    + split.
      * intros H. destruct (In_nth _ _ d H) as [i [H1 H2]]. exists i. repeat split; try lia; assumption.
      * intros [i [_ [H2 H3]]]. rewrite <- H3. apply nth_In. exact H2.
    + rewrite IH. split.
      * intros [i [H1 [H2 H3]]]. exists (S i). cbn [length nth]. repeat split; try lia. exact H3.
      * intros [[|i] [H1 [H2 H3]]]; [lia|]. cbn [nth length] in *. exists i. repeat split; try lia. exact H3.
Qed.

Lemma nth_skipn' {A} (d : A) b : forall (l : list A) i, nth i (skipn b l) d = nth (b + i) l d.
Proof.
  induction b as [|b IH]; intros l i; [reflexivity|].
  destruct l as [|x l]; [cbn [skipn]; destruct i; reflexivity|]. cbn [skipn plus nth]. apply IH.
Qed.

Lemma in_slice_nth {A} (d : A) b e (l : list A) x :
  In x (firstn (e - b) (skipn b l)) <-> exists i, b <= i /\ i < e /\ i < length l /\ nth i l d = x.
Proof.
  rewrite (in_firstn_nth d). split.
  - intros [i [H1 [H2 H3]]]. rewrite skipn_length in H2. exists (b + i).
    rewrite nth_skipn' in H3. repeat split; try lia. exact H3.
  - intros [i [H1 [H2 [H3 H4]]]]. exists (i - b). rewrite skipn_length, nth_skipn'.
    replace (b + (i - b)) with i by lia. repeat split; try lia. exact H4.
Qed.

Lemma in_nth_ex {A} (d : A) (l : list A) x : In x l <-> exists i, i < length l /\ nth i l d = x.
Proof.
  split.
  - intros H. destruct (In_nth _ _ d H) as [i [H1 H2]]. exists i. split; assumption.
  - intros [i [H1 H2]]. rewrite <- H2. apply nth_In. exact H1.
Qed.

Section Bounds.
  Variable c : comparer.
  Hypothesis ok : comparer_ok c.
  Variable p : kparams.

  Notation ssorted := (ssorted c).
  Notation lt := (Order.lt c).
  Notation le := (Order.le c).

  (* a well-formed table: non-empty, strictly ordered, valid kinds *)
  Definition tbl_ok (t : table) : Prop := table_ok c p t /\ t_entries t <> [].

  Lemma last_map_some (l : list entry) d : l <> [] -> last (map Some l) None = Some (last l d).
  Proof.
    induction l as [|x l IH]; [congruence|]. intros _. destruct l as [|y l']; [reflexivity|].
    cbn [map last] in *. apply IH. discriminate.
  Qed.

  Lemma t_first_lo t : t_entries t <> [] -> t_first t = Some (t_lo t).
  Proof. unfold t_first, t_lo. destruct (t_entries t); [congruence|reflexivity]. Qed.

  Lemma t_last_hi t : t_entries t <> [] -> t_last t = Some (t_hi t).
  Proof. unfold t_last, t_hi. apply last_map_some. Qed.

  Lemma t_lo_in t : t_entries t <> [] -> In (t_lo t) (t_entries t).
  Proof. unfold t_lo. destruct (t_entries t); [congruence|]. intros _. left; reflexivity. Qed.

  Lemma t_hi_in t : t_entries t <> [] -> In (t_hi t) (t_entries t).
  Proof.
    intros H. apply (last_some_in (t_entries t)). rewrite <- (t_last_hi t H). reflexivity.
  Qed.

  (* every user key of a table lies between the user keys of its bounds *)
  Lemma tbl_bounds t x : tbl_ok t -> In x (t_entries t) ->
    le (umin_of t) (e_uk x) /\ le (e_uk x) (umax_of t).
  Proof.
    intros [[Hs _] Hne] Hx.
    destruct (pin_table_bounds c (comparer_ok_pre c ok) t x Hs Hx) as [f [l [F [L [H1 H2]]]]].
    rewrite (t_first_lo t Hne) in F. rewrite (t_last_hi t Hne) in L.
    injection F as <-. injection L as <-. split; assumption.
  Qed.

  Lemma tbl_valid t : tbl_ok t -> le (umin_of t) (umax_of t).
  Proof. intros H. apply (tbl_bounds t (t_hi t) H). apply t_hi_in. apply H. Qed.

  (* internal-key form: the first entry is the smallest, the last the largest *)
  Lemma tbl_lo_min t x : tbl_ok t -> In x (t_entries t) -> x = t_lo t \/ ecmp c (t_lo t) x = Lt.
  Proof.
    intros [[Hs _] Hne] Hx. unfold t_lo. destruct (t_entries t) as [|y l]; [congruence|].
    cbn [hd]. destruct Hx as [<-|Hx]; [left; reflexivity|]. right.
    destruct Hs as [Hall _]. rewrite Forall_forall in Hall. apply Hall. exact Hx.
  Qed.

  Lemma tbl_hi_max t x : tbl_ok t -> In x (t_entries t) -> x = t_hi t \/ ecmp c x (t_hi t) = Lt.
  Proof.
    intros [[Hs _] Hne] Hx. apply (ssorted_last_ge c (t_entries t) x (t_hi t) Hs); [|exact Hx].
    rewrite <- (t_last_hi t Hne). reflexivity.
  Qed.

  Lemma cmp_cases a b : lt a b \/ a = b \/ lt b a.
  Proof. apply (OrderProofs.lt_total c ok). Qed.

  Lemma cmp_gt_iff a b : cmp c a b = Gt <-> lt b a.
  Proof. apply (cmp_gt_lt c ok). Qed.

  Lemma ule_iff_not_lt a b : le a b <-> ~ lt b a.
  Proof. symmetry. apply (OrderProofs.not_lt_le c ok). Qed.

  Lemma ule_or_lt a b : le a b \/ lt b a.
  Proof.
    destruct (cmp_cases a b) as [H|[->|H]]; [left; apply (OrderProofs.lt_le c); exact H|left; apply (OrderProofs.le_refl c ok)|right; exact H].
  Qed.

  Lemma ult_not_le a b : lt a b -> le b a -> False.
  Proof. intros H1 H2. apply (proj1 (ule_iff_not_lt b a) H2). exact H1. Qed.

  (* tFile.after / before in order form *)
  Lemma t_after_some t k : t_after c t (Some k) = true <-> lt (umax_of t) k.
  Proof. unfold t_after. rewrite <- cmp_gt_iff. destruct (cmp c k (Pick.umax_of t)); split; congruence. Qed.

  Lemma t_after_false t k : t_after c t (Some k) = false <-> le k (umax_of t).
  Proof.
    rewrite ule_iff_not_lt, <- t_after_some. destruct (t_after c t (Some k)); split; congruence.
  Qed.

  Lemma t_before_some t k : t_before c t (Some k) = true <-> lt k (umin_of t).
  Proof. unfold t_before, Order.lt. destruct (cmp c k (Pick.umin_of t)); split; congruence. Qed.

  Lemma t_before_false t k : t_before c t (Some k) = false <-> le (umin_of t) k.
  Proof.
    rewrite ule_iff_not_lt, <- t_before_some. destruct (t_before c t (Some k)); split; congruence.
  Qed.

  Definition key_in (k : bytes) (umin umax : option bytes) : Prop :=
    match umin with Some m => le m k | None => True end /\
    match umax with Some m => le k m | None => True end.

  Lemma overlaps_of_key t x umin umax : tbl_ok t -> In x (t_entries t) -> key_in (e_uk x) umin umax ->
    t_overlaps c t umin umax = true.
  Proof.
    intros Ht Hx [K1 K2]. destruct (tbl_bounds t x Ht Hx) as [B1 B2].
    unfold t_overlaps. apply andb_true_intro. split; apply Bool.negb_true_iff.
    - destruct umin as [m|]; [|reflexivity]. apply t_after_false. eapply (OrderProofs.le_trans c ok); eauto.
    - destruct umax as [m|]; [|reflexivity]. apply t_before_false. eapply (OrderProofs.le_trans c ok); eauto.
  Qed.

  (* a list of tables ordered and disjoint in user keys, in index form *)
  Definition bsorted (tf : list table) : Prop :=
    forall i j, i < j -> j < length tf -> lt (umax_of (tnth tf i)) (umin_of (tnth tf j)).

  Definition tables_lt (A B : list table) : Prop :=
    forall a b, In a A -> In b B -> forall x y, In x (t_entries a) -> In y (t_entries b) -> cmp c (e_uk x) (e_uk y) = Lt.

  Lemma level_sorted_app A B : level_sorted c (A ++ B) <-> level_sorted c A /\ level_sorted c B /\ tables_lt A B.
  Proof.
    induction A as [|a A IH]; cbn [app level_sorted].
    - split; [intros H; repeat split; [exact H|intros a b []]|intros [_ [H _]]; exact H].
    - rewrite IH, Forall_app. split.
      + intros [[F1 F2] [H1 [H2 H3]]]. repeat split; try assumption.
        intros a' b [<-|Ha] Hb x y Hx Hy.
        * rewrite Forall_forall in F2. exact (F2 b Hb x y Hx Hy).
        * exact (H3 a' b Ha Hb x y Hx Hy).
      + intros [[F1 H1] [H2 H3]]. repeat split; try assumption.
        * rewrite Forall_forall. intros b Hb x y Hx Hy. apply (H3 a b (or_introl eq_refl) Hb x y Hx Hy).
        * intros a' b Ha Hb. apply H3; [right; exact Ha|exact Hb].
  Qed.

  Lemma level_sorted_pair ts i j : level_sorted c ts -> i < j -> j < length ts ->
    forall x y, In x (t_entries (tnth ts i)) -> In y (t_entries (tnth ts j)) -> cmp c (e_uk x) (e_uk y) = Lt.
  Proof.
    revert i j; induction ts as [|t ts IH]; intros i j Hs Hij Hj; [cbn in Hj; lia|].
    destruct Hs as [Hall Hs]. destruct j as [|j]; [lia|]. cbn [length] in Hj.
    destruct i as [|i].
    - unfold tnth. cbn [nth]. rewrite Forall_forall in Hall. apply Hall. apply nth_In. lia.
    - unfold tnth. cbn [nth]. apply (IH i j Hs); lia.
  Qed.

  Lemma level_sorted_bsorted ts : (forall t, In t ts -> tbl_ok t) -> level_sorted c ts -> bsorted ts.
  Proof.
    intros Hok Hs i j Hij Hj.
    assert (Hi : In (tnth ts i) ts) by (apply nth_In; lia).
    assert (Hjn : In (tnth ts j) ts) by (apply nth_In; lia).
    apply (level_sorted_pair ts i j Hs Hij Hj).
    - apply t_hi_in. apply (Hok _ Hi).
    - apply t_lo_in. apply (Hok _ Hjn).
  Qed.

  Lemma level_sorted_filter f ts : level_sorted c ts -> level_sorted c (filter f ts).
  Proof.
    induction ts as [|t ts IH]; [auto|]. intros [Hall Hs]. cbn [filter].
    destruct (f t); [|apply IH; exact Hs]. split; [|apply IH; exact Hs].
    rewrite Forall_forall in *. intros t' Ht'. apply Hall. apply filter_In in Ht'. apply Ht'.
  Qed.

  Lemma level_sorted_firstn k ts : level_sorted c ts -> level_sorted c (firstn k ts).
  Proof.
    intros H. rewrite <- (firstn_skipn k ts) in H. apply level_sorted_app in H. apply H.
  Qed.

  Lemma level_sorted_skipn k ts : level_sorted c ts -> level_sorted c (skipn k ts).
  Proof.
    intros H. rewrite <- (firstn_skipn k ts) in H. apply level_sorted_app in H. apply H.
  Qed.

  (* monotone bounds along an ordered list *)
  Lemma bsorted_umax_mono tf i j : (forall t, In t tf -> tbl_ok t) -> bsorted tf -> i <= j -> j < length tf ->
    le (umax_of (tnth tf i)) (umax_of (tnth tf j)).
  Proof.
    intros Hok Hb Hij Hj. destruct (Nat.eq_dec i j) as [->|Hne]; [apply (OrderProofs.le_refl c ok)|].
    apply (OrderProofs.lt_le c). eapply (OrderProofs.lt_le_trans c ok); [apply (Hb i j); lia|].
    apply tbl_valid. apply Hok. apply nth_In. exact Hj.
  Qed.

  Lemma bsorted_umin_mono tf i j : (forall t, In t tf -> tbl_ok t) -> bsorted tf -> i <= j -> j < length tf ->
    le (umin_of (tnth tf i)) (umin_of (tnth tf j)).
  Proof.
    intros Hok Hb Hij Hj. destruct (Nat.eq_dec i j) as [->|Hne]; [apply (OrderProofs.le_refl c ok)|].
    apply (OrderProofs.lt_le c). eapply (OrderProofs.le_lt_trans c ok); [|apply (Hb i j); lia].
    apply tbl_valid. apply Hok. apply nth_In. lia.
  Qed.
  (* sort.Search for the first internal key not below k, along strictly increasing keys *)
  Lemma monotone_not_below (key : nat -> ikey) k n : (forall i j, i < j -> j < n -> icmp c (key i) (key j) = Lt) ->
    monotone (fun i => match icmp c (key i) k with Lt => false | _ => true end) 0 n.
  Proof.
    intros Hinc a b _ Hab Hb Fa. destruct (Nat.eq_dec a b) as [->|Hne]; [exact Fa|].
    destruct (icmp c (key b) k) eqn:E; try reflexivity.
    rewrite (icmp_trans c ok _ _ _ (Hinc a b ltac:(lia) Hb) E) in Fa. discriminate.
  Qed.
End Bounds.
