(* Lsm/ReadPathProofs.v — the composition: DB.Get computed on BYTES (Lsm/ReadPath.v: memdb arrays, table
   files read through the filter and the index block) equals the L1 model's read (Lsm/Lsm.v lsm_get) on the
   abstraction of the state, hence (LsmProofs.get_correct) returns the newest visible write.
   Layers used as lemmas, not re-proved: C15 (Codec/IKeyProofs.v: order laws, encoding), C14 (Mem/MemOps.v
   find_ok under Mem/MemInv.v Inv), C13 (Codec/TableProofs.v under table_wf, TableCheckProofs.v
   table_wfb_sound), C06's sort.Search lemma (Lsm/PickBase.v sort_search_spec), C01 (LsmProofs.v).
   The well-formedness of a byte state that all byte-level statements assume, wf_bstate, is defined here. *)
From GL Require Import Codec.IKeyProofs Codec.TableCheck Lsm.LsmProofs Lsm.WfProofs Lsm.Pick Lsm.PickBase Lsm.ReadPath
  Lsm.ReadPathKey Lsm.ReadPathMem Lsm.ReadPathTable Lsm.History Lsm.HistoryProofs.
From GL Require Lsm.TxnBytes Mem.ListLemmas.
From Coq Require Import Arith Lia.
Open Scope N_scope.

Lemma find_at {A} (g : A -> bool) (d : A) : forall (l : list A) (i : nat),
  (forall a, (a < i)%nat -> g (nth a l d) = false) ->
  ((i < length l)%nat -> g (nth i l d) = true) -> (i <= length l)%nat ->
  find g l = if Nat.ltb i (length l) then Some (nth i l d) else None.
Proof.
  induction l as [|x l IH]; intros i H1 H2 H3.
  - cbn in H3. assert (i = 0%nat) by lia. subst. reflexivity.
  - destruct i as [|i].
    + pose proof (H2 ltac:(cbn; lia)) as G. cbn [nth] in G. cbn [find nth length]. rewrite G. reflexivity.
    + pose proof (H1 0%nat ltac:(lia)) as G. cbn [nth] in G. cbn [find]. rewrite G. cbn [nth length].
      rewrite (IH i).
      * destruct (Nat.ltb i (length l)) eqn:E; destruct (Nat.ltb (S i) (S (length l))) eqn:E2; try reflexivity;
          apply Nat.ltb_lt in E || apply Nat.ltb_ge in E; apply Nat.ltb_lt in E2 || apply Nat.ltb_ge in E2; lia.
      * intros a Ha. apply (H1 (S a)). lia.
      * intros Hi. apply H2. cbn [length]. lia.
      * cbn [length] in H3. lia.
Qed.

Lemma sort_search_find {A} (g : A -> bool) (d : A) (l : list A) :
  monotone (fun i => g (nth i l d)) 0 (length l) ->
  find g l = if Nat.ltb (sort_search (length l) (fun i => g (nth i l d))) (length l)
             then Some (nth (sort_search (length l) (fun i => g (nth i l d))) l d) else None.
Proof.
  intros Hm. destruct (sort_search_spec (length l) _ Hm) as [K1 [K2 K3]].
  apply find_at; [exact K2 | intros Hi; apply K3; [lia|exact Hi] | exact K1].
Qed.

Lemma in_last {A} (r : list A) (x : A) : In (last r x) (x :: r).
Proof.
  revert x. induction r as [|y r IH]; intros x; [left; reflexivity|].
  right. rewrite (ListLemmas.last_cons_default r y x). apply IH.
Qed.

Lemma last_map_ne {A B} (h : A -> B) (r : list A) : forall (x : A) (d : B), last (map h (x :: r)) d = h (last r x).
Proof.
  induction r as [|y r IH]; intros x d; [reflexivity|].
  change (map h (x :: y :: r)) with (h x :: map h (y :: r)).
  change (last (h x :: map h (y :: r)) d) with (last (map h (y :: r)) d).
  rewrite (IH y d). f_equal. symmetry. apply ListLemmas.last_cons_default.
Qed.

Lemma last_map_some {A B} (g : A -> B) (x : A) (r : list A) :
  last (map Some (map g (x :: r))) None = Some (g (last r x)).
Proof. rewrite map_map. apply (last_map_ne (fun a => Some (g a))). Qed.

Section WfFull.
  Variable c : comparer.
  Hypothesis ok : comparer_ok c.
  Variable p : kparams.
  Hypothesis pok : kparams_ok p.

  Theorem wf_fullb_sound st : wf_fullb c p st = true -> wf_state c p st.
  Proof.
    unfold wf_fullb. intros H.
    apply andb_prop in H as [H Hfz]. apply andb_prop in H as [H Hmem]. apply andb_prop in H as [H Hv].
    apply andb_prop in H as [H Hfk]. apply andb_prop in H as [H Hfs]. apply andb_prop in H as [H Hmk].
    apply andb_prop in H as [Haux Hms].
    destruct st as [mem frozen aux lvls]. cbn [st_mem st_frozen st_aux st_levels] in *.
    destruct aux; [|discriminate].
    pose proof (wf_versionb_sound c ok p lvls Hv) as [_ _ Wa W0 Wd Wc].
    cbn [st_mem st_frozen st_aux st_levels] in *.
    constructor; cbn [st_mem st_frozen st_aux st_levels].
    - split; [apply (sortedb_ssorted c ok); exact Hms | apply kindsb_ok; exact Hmk].
    - split; [apply (sortedb_ssorted c ok); exact Hfs | apply kindsb_ok; exact Hfk].
    - exact Wa.
    - exact W0.
    - exact Wd.
    - unfold comps in *. cbn [st_mem st_frozen st_aux st_levels chain_newer] in *.
      destruct Wc as (_ & _ & W3 & W4).
      cbn [forallb] in Hmem. apply andb_prop in Hmem as [Hmf Hml].
      assert (E : forall x, newer_thanP x []) by (intros x a b _ []).
      split; [|split; [|split; [exact W3|exact W4]]].
      + constructor; [apply (newer_than_P c ok); exact Hmf|]. constructor; [apply E|].
        rewrite Forall_forall. intros y Hy. apply in_map_iff in Hy as (l & <- & Hl).
        apply (newer_than_P c ok). rewrite forallb_forall in Hml. apply Hml. apply in_map. exact Hl.
      + constructor; [apply E|].
        rewrite Forall_forall. intros y Hy. apply in_map_iff in Hy as (l & <- & Hl).
        apply (newer_than_P c ok). rewrite forallb_forall in Hfz. apply Hfz. apply in_map. exact Hl.
  Qed.
End WfFull.

Section Compose.
  Variable c : comparer.
  Hypothesis ok : comparer_ok c.
  Variable p : kparams.
  Hypothesis pok : kparams_ok p.
  Hypothesis seek_val : keyTypeSeek p <= keyTypeVal p.
  Variable mp : MemDB.mparams.
  Hypothesis mpok : MemDB.mparams_ok mp.
  Variable tp : tparams.
  Variable crc : bytes -> N.
  Variable decompress : bytes -> option bytes.
  Variable fname : option bytes.
  Variable ufc : bytes -> N -> bytes -> bool.
  Variable verify : bool.
  Variable ri : N.

  Local Notation icc := (ibc c).
  Local Notation okb := (tfile_okb c p tp crc decompress fname ufc verify ri).
  Local Notation pairs := (tf_pairs c tp crc decompress fname ufc verify ri).
  Local Notation atab := (abs_table c tp crc decompress fname ufc verify ri).
  Local Notation absS := (abs c mp tp crc decompress fname ufc verify ri).
  Local Notation facts := (tf_facts c p tp crc decompress fname ufc verify ri).

  (* the well-formedness the refinement is stated over: memdbs satisfy C14's invariant and hold stored keys
     only; every table file passes the format check (C13's table_check plus decodable keys, the recorded
     bounds and the filter condition); the abstraction is a well-formed L1 layout *)
  Record wf_bstate (st : bstate) : Prop := {
    wb_mem : forall d, bs_mem st = Some d -> mem_ok c p mp d;
    wb_frozen : forall d, bs_frozen st = Some d -> mem_ok c p mp d;
    wb_tables : Forall (Forall (fun f => okb f = true)) (bs_levels st);
    wb_abs : wf_state c p (absS st)
  }.

  Section Probe.
    Variables (k : bytes) (s : N).
    Hypothesis Wk : wf_bytes k.
    Hypothesis Hs : s <= keyMaxSeq p.

    Local Notation q := (probe p k s).
    Local Notation key := (encode_ikey (probe p k s)).

    Local Notation key_dec := (probe_dec p pok k s Wk Hs).

    Lemma file_bounds f : okb f = true ->
      exists kv r amin amax,
        pairs f = kv :: r /\
        ik_dec (tf_imin f) = Some amin /\ ik_dec (tf_imax f) = Some amax /\
        e_ikey (entry_of kv) = amin /\ e_ikey (entry_of (last r kv)) = amax /\
        t_first (atab f) = Some (entry_of kv) /\ t_last (atab f) = Some (entry_of (last r kv)).
    Proof.
      intros Hf. destruct (okb_facts c p tp crc decompress fname ufc verify ri f Hf) as (bl & se & hs & F).
      destruct (tff_bounds _ _ _ _ _ _ _ _ _ _ _ _ _ F) as (kv & r & E & Emin & Emax).
      pose proof (tff_keys _ _ _ _ _ _ _ _ _ _ _ _ _ F) as Hk. rewrite E in Hk. unfold keys_ok in Hk. rewrite Forall_forall in Hk.
      assert (H1 : In kv (kv :: r)) by (left; reflexivity).
      assert (H2 : In (last r kv) (kv :: r)) by apply in_last.
      destruct (key_okb_dec p _ (Hk _ H1)) as (amin & Dmin & _).
      destruct (key_okb_dec p _ (Hk _ H2)) as (amax & Dmax & _).
      exists kv, r, amin, amax.
      rewrite (tff_pairs _ _ _ _ _ _ _ _ _ _ _ _ _ F), E. rewrite Emin, Emax.
      repeat split; try assumption.
      - apply e_ikey_entry_of. exact Dmin.
      - apply e_ikey_entry_of. exact Dmax.
      - unfold t_first, abs_table. cbn [t_entries]. rewrite (tff_pairs _ _ _ _ _ _ _ _ _ _ _ _ _ F), E. reflexivity.
      - unfold t_last, abs_table. cbn [t_entries]. rewrite (tff_pairs _ _ _ _ _ _ _ _ _ _ _ _ _ F), E. apply last_map_some.
    Qed.

    Lemma e_uk_ikey e : uk (e_ikey e) = e_uk e.
    Proof. reflexivity. Qed.

    (* tFile.overlaps(ukey, ukey) = t_covers of the L1 model *)
    Lemma overlaps_covers f : okb f = true ->
      tf_overlaps c f k = Some (t_covers c (atab f) k).
    Proof.
      intros Hf. destruct (file_bounds f Hf) as (kv & r & amin & amax & _ & Dmin & Dmax & Emin & Emax & Ef & El).
      unfold tf_overlaps, tf_after, tf_before, t_covers. rewrite Ef, El.
      rewrite (ik_dec_ukey _ _ Dmin), (ik_dec_ukey _ _ Dmax).
      rewrite <- Emin, <- Emax, !e_uk_ikey. unfold Order.leb.
      rewrite (cmp_opp c ok k (e_uk (entry_of kv))).
      destruct (cmp c k (e_uk (entry_of (last r kv)))); destruct (cmp c k (e_uk (entry_of kv))); reflexivity.
    Qed.

    Local Notation wl0 := (walk_l0 c p tp crc decompress fname ufc verify).

    Lemma walk_l0_group ts : Forall (fun f => okb f = true) ts -> forall ze,
      wl0 ts key k (option_map zproj ze) = FCont (option_map zproj (group_get c p (map atab ts) k s ze)).
    Proof.
      induction ts as [|t ts IH]; intros Hok ze; [reflexivity|].
      inversion Hok as [|? ? Ht Hok']; subst. cbn [walk_l0 map group_get].
      rewrite (overlaps_covers t Ht).
      destruct (t_covers c (atab t) k); [|apply IH; exact Hok'].
      destruct (okb_facts c p tp crc decompress fname ufc verify ri t Ht) as (bl & se & hs & F).
      rewrite (get_in_table_l0 c ok p pok seek_val tp crc decompress fname ufc verify ri t bl se hs F k s Wk Hs ze).
      apply IH. exact Hok'.
    Qed.

    Local Notation gpred := (fun f : tfile => match cmp icc (tf_imax f) key with Lt => false | _ => true end).

    Lemma search_max_find ts : Forall (fun f => okb f = true) ts ->
      search_max c (map atab ts) q = option_map atab (find gpred ts).
    Proof.
      induction ts as [|t ts IH]; intros Hok; [reflexivity|].
      inversion Hok as [|? ? Ht Hok']; subst. cbn [map search_max find].
      destruct (file_bounds t Ht) as (kv & r & amin & amax & _ & Dmin & Dmax & Emin & Emax & Ef & El).
      rewrite El, Emax, (ibc_dec c _ _ _ _ Dmax key_dec).
      destruct (icmp c amax q); try reflexivity. apply IH. exact Hok'.
    Qed.

    Lemma gpred_monotone ts : Forall (fun f => okb f = true) ts -> level_sorted c (map atab ts) ->
      monotone (fun i => gpred (nth i ts no_tfile)) 0 (length ts).
    Proof.
      intros Hok Hls a b _ Hab Hb Ha.
      destruct (Nat.eq_dec a b) as [->|Hne]; [exact Ha|].
      rewrite Forall_forall in Hok.
      assert (Hta : okb (nth a ts no_tfile) = true) by (apply Hok; apply nth_In; lia).
      assert (Htb : okb (nth b ts no_tfile) = true) by (apply Hok; apply nth_In; lia).
      destruct (file_bounds _ Hta) as (kva & ra & amina & amaxa & Epa & _ & Dmaxa & _ & Emaxa & _ & _).
      destruct (file_bounds _ Htb) as (kvb & rb & aminb & amaxb & Epb & _ & Dmaxb & _ & Emaxb & _ & _).
      rewrite (ibc_dec c _ _ _ _ Dmaxa key_dec) in Ha. rewrite (ibc_dec c _ _ _ _ Dmaxb key_dec).
      assert (L : icmp c amaxa amaxb = Lt).
      { apply (icmp_ukey_lt c). rewrite <- Emaxa, <- Emaxb, !e_uk_ikey.
        apply (level_sorted_pair c (map atab ts) a b Hls); [lia | rewrite map_length; exact Hb | |]; unfold tnth.
        - rewrite (nth_indep _ no_table (atab no_tfile)) by (rewrite map_length; lia). rewrite map_nth.
          unfold abs_table. cbn [t_entries]. rewrite Epa. apply in_map. apply in_last.
        - rewrite (nth_indep _ no_table (atab no_tfile)) by (rewrite map_length; lia). rewrite map_nth.
          unfold abs_table. cbn [t_entries]. rewrite Epb. apply in_map. apply in_last. }
      destruct (icmp c amaxb q) eqn:E; try reflexivity. exfalso.
      (* amaxa < amaxb < q contradicts amaxa >= q *)
      pose proof (icmp_trans c ok _ _ _ L E) as T. rewrite T in Ha. discriminate.
    Qed.

    Local Notation wdeep := (walk_deep c p tp crc decompress fname ufc verify).

    Lemma walk_deep_level ts z : Forall (fun f => okb f = true) ts -> level_sorted c (map atab ts) ->
      wdeep ts key k z =
      match level_get c p (map atab ts) k s with
      | GMiss => FCont z
      | r => FStop (BRes r)
      end.
    Proof.
      intros Hok Hls. unfold walk_deep, tf_search_max, level_get, ReadPath.ic.
      rewrite (search_max_find ts Hok).
      rewrite (sort_search_find gpred no_tfile ts (gpred_monotone ts Hok Hls)).
      set (i := sort_search (length ts) (fun i => gpred (nth i ts no_tfile))).
      destruct (Nat.ltb i (length ts)) eqn:Ei; cbn [option_map]; [|reflexivity].
      apply Nat.ltb_lt in Ei. rewrite Forall_forall in Hok.
      assert (Ht : okb (nth i ts no_tfile) = true) by (apply Hok; apply nth_In; exact Ei).
      destruct (file_bounds _ Ht) as (kv & r & amin & amax & _ & Dmin & _ & Emin & _ & Ef & _).
      rewrite Ef, (ik_dec_ukey _ _ Dmin), <- Emin, e_uk_ikey. unfold Order.leb.
      rewrite (cmp_opp c ok k (e_uk (entry_of kv))).
      destruct (okb_facts c p tp crc decompress fname ufc verify ri _ Ht) as (bl & se & hs & F).
      pose proof (get_in_table_deep c ok p pok seek_val tp crc decompress fname ufc verify ri _ bl se hs F k s Wk Hs z) as G.
      destruct (cmp c k (e_uk (entry_of kv))); cbn [CompOpp]; try exact G. reflexivity.
    Qed.

    (* entries that group_get can return *)
    Lemma group_get_in ts : forall z e, group_get c p ts k s z = Some e ->
      z = Some e \/ exists t, In t ts /\ In e (t_entries t).
    Proof.
      induction ts as [|t ts IH]; intros z e; cbn [group_get]; [auto|].
      intros H. apply IH in H as [H|(t' & Ht' & He)]; [|right; exists t'; split; [right|]; assumption].
      destruct (t_covers c t k); [|left; exact H].
      destruct (find_ge c q (t_entries t)) as [e'|] eqn:Eg; [|left; exact H].
      destruct (cmp c (e_uk e') k); try (left; exact H).
      assert (Hin : exists t0, In t0 (t :: ts) /\ In e' (t_entries t0))
        by (exists t; split; [left; reflexivity|eapply (find_ge_in c); eauto]).
      destruct z as [ze|].
      - destruct (e_seq ze <=? e_seq e'); [|left; exact H]. injection H as <-. right. exact Hin.
      - injection H as <-. right. exact Hin.
    Qed.

    Lemma kt_result_entry f e : okb f = true -> In e (t_entries (atab f)) ->
      kt_result p (e_kind e) (e_val e) = BRes (res_of p e).
    Proof.
      intros Hf He. destruct (okb_facts c p tp crc decompress fname ufc verify ri f Hf) as (bl & se & hs & F).
      apply (kt_result_res c p pok tp crc decompress fname ufc verify ri f bl se hs F). exact He.
    Qed.

    Local Notation wlev := (walk_levels c p tp crc decompress fname ufc verify).

    Lemma walk_levels_deep rest : Forall (Forall (fun f => okb f = true)) rest ->
      Forall (level_ok c p) (map (map atab) rest) -> forall n,
      wlev (S n) rest key k None = BRes (deep_get c p (map (map atab) rest) k s).
    Proof.
      induction rest as [|ts rest IH]; intros Hok Hlv n; [reflexivity|].
      inversion Hok as [|? ? Hts Hok']; subst. cbn [map] in Hlv. inversion Hlv as [|? ? [_ Hls] Hlv']; subst.
      cbn [walk_levels map deep_get].
      destruct ts as [|t ts'].
      - cbn [map]. unfold level_get. cbn [search_max]. apply IH; assumption.
      - rewrite (walk_deep_level (t :: ts') None Hts Hls).
        destruct (level_get c p (map atab (t :: ts')) k s); try reflexivity.
        cbn [lf_check]. apply IH; assumption.
    Qed.

    Lemma version_get_refines lvls : Forall (Forall (fun f => okb f = true)) lvls ->
      Forall (level_ok c p) (tl (map (map atab) lvls)) ->
      version_get_bytes c p tp crc decompress fname ufc verify lvls key k =
      BRes (version_get c p [] (map (map atab) lvls) k s).
    Proof.
      intros Hok Hlv. unfold version_get_bytes, version_get. cbn [group_get group_res].
      destruct lvls as [|l0 rest]; [reflexivity|].
      inversion Hok as [|? ? H0 Hok']; subst. cbn [map tl] in Hlv. cbn [walk_levels map].
      destruct l0 as [|t l0'].
      - cbn [map group_get group_res]. apply walk_levels_deep; assumption.
      - pose proof (walk_l0_group (t :: l0') H0 None) as W. cbn [option_map] in W. rewrite W.
        destruct (group_get c p (map atab (t :: l0')) k s None) as [e|] eqn:Eg; cbn [option_map lf_check group_res].
        + apply group_get_in in Eg as [Eg|(t0 & Ht0 & He)]; [discriminate|].
          apply in_map_iff in Ht0 as (f0 & <- & Hf0). rewrite Forall_forall in H0.
          unfold zproj. cbn [fst snd]. rewrite (kt_result_entry f0 e (H0 _ Hf0) He).
          pose proof (res_nonmiss p e). destruct (res_of p e); congruence.
        + apply walk_levels_deep; assumption.
    Qed.

    Lemma mem_get_opt_comp d : (forall m, d = Some m -> mem_ok c p mp m) ->
      mem_get_opt c p mp d key k =
      match comp_get c p (mem_entries mp d) k s with
      | GMiss => None
      | r => Some (BRes r)
      end.
    Proof.
      intros H. destruct d as [m|]; cbn [mem_get_opt mem_entries]; [|reflexivity].
      apply (mem_get_comp c ok p pok seek_val mp mpok m k s (H m eq_refl) Wk Hs).
    Qed.

    (* DB.get(auxm, auxt, ...): an additional memdb and additional level-0 tables are consulted first (a transaction's private
       ones; DB.Get passes none), then the DB's buffers and the version *)
    Theorem get_aux_refines auxm auxt st : (forall m, auxm = Some m -> mem_ok c p mp m) -> wf_bstate st ->
      Forall (fun f => okb f = true) auxt ->
      TxnBytes.db_get_aux c p mp tp crc decompress fname ufc verify auxm auxt st k s =
      BRes (Txn.txn_lsm_get c p (mem_entries mp auxm)
              {| st_mem := mem_entries mp (bs_mem st); st_frozen := mem_entries mp (bs_frozen st);
                 st_aux := map atab auxt; st_levels := map (map atab) (bs_levels st) |} k s).
    Proof.
      intros Ham [Hm Hf Ht Ha] Hat. unfold TxnBytes.db_get_aux.
      rewrite (make_ikey_probe p k s Hs seek_val), (ik_dec_ukey _ _ key_dec). cbn [uk probe].
      unfold Txn.txn_lsm_get, lsm_get. cbn [st_mem st_frozen st_aux st_levels].
      rewrite (mem_get_opt_comp _ Ham).
      destruct (comp_get c p (mem_entries mp auxm) k s); try reflexivity.
      rewrite (mem_get_opt_comp _ Hm).
      destruct (comp_get c p (mem_entries mp (bs_mem st)) k s); try reflexivity.
      rewrite (mem_get_opt_comp _ Hf).
      destruct (comp_get c p (mem_entries mp (bs_frozen st)) k s); try reflexivity.
      pose proof (wf_deep c p _ Ha) as Hd. unfold abs in Hd. cbn [st_levels] in Hd.
      pose proof (version_get_refines (bs_levels st) Ht Hd) as VG.
      unfold TxnBytes.version_get_aux. destruct auxt as [|f auxt'].
      - rewrite VG. reflexivity.
      - pose proof (walk_l0_group (f :: auxt') Hat None) as W.
        cbn [option_map] in W. rewrite W. unfold version_get at 1.
        destruct (group_get c p (map atab (f :: auxt')) k s None) as [e|] eqn:Eg; cbn [option_map lf_check group_res].
        + apply group_get_in in Eg as [Eg|(t0 & Ht0 & He)]; [discriminate|].
          apply in_map_iff in Ht0 as (f0 & <- & Hf0). rewrite Forall_forall in Hat.
          unfold zproj. cbn [fst snd]. rewrite (kt_result_entry f0 e (Hat _ Hf0) He).
          pose proof (res_nonmiss p e). destruct (res_of p e); congruence.
        + unfold version_get_bytes in VG. rewrite VG. unfold version_get. cbn [group_get group_res]. reflexivity.
    Qed.

    Theorem read_path_refines st : wf_bstate st ->
      db_get_bytes c p mp tp crc decompress fname ufc verify st k s = BRes (lsm_get c p (absS st) k s).
    Proof. intros W. exact (get_aux_refines None [] st (fun m E => ltac:(discriminate E)) W (Forall_nil _)). Qed.

    Theorem get_correct_bytes st : wf_bstate st ->
      db_get_bytes c p mp tp crc decompress fname ufc verify st k s =
      BRes (group_res p (newest c k s (all_entries (absS st)) None)).
    Proof.
      intros H. rewrite (read_path_refines st H). f_equal. apply (get_correct c ok p pok). apply (wb_abs st H).
    Qed.
  End Probe.

  (* against the plain map: if the buffers and table files hold exactly the stored collection of an
     admissible history (writes, snapshots, admissible reorganisations), a read at the history's current
     sequence number, computed on the bytes, is the plain map's answer; at any protected sequence number it
     is the answer judged on everything ever written *)
  Theorem get_is_map_bytes st ops k : wf_bstate st -> wf_bytes k ->
    hops_ok c p h_init ops -> h_store (hrun ops) = all_entries (absS st) -> h_seq (hrun ops) <= keyMaxSeq p ->
    bapi (db_get_bytes c p mp tp crc decompress fname ufc verify st k (h_seq (hrun ops))) =
    Some (a_get c k (map_of c p ops)).
  Proof.
    intros W Wk Hok Hst Hs. rewrite (get_correct_bytes k _ Wk Hs st W). cbn [bapi]. f_equal.
    rewrite <- (get_is_map c ok p ops k Hok). unfold store_get, History.res. rewrite Hst. reflexivity.
  Qed.

  Theorem history_correct_bytes st ops k s : wf_bstate st -> wf_bytes k ->
    hops_ok c p h_init ops -> h_store (hrun ops) = all_entries (absS st) -> protected (hrun ops) s -> s <= keyMaxSeq p ->
    bapi (db_get_bytes c p mp tp crc decompress fname ufc verify st k s) = Some (hist_get c p (hrun ops) k s).
  Proof.
    intros W Wk Hok Hst Hp Hs. rewrite (get_correct_bytes k s Wk Hs st W). cbn [bapi]. f_equal.
    rewrite <- (history_correct c p ops Hok k s Hp). unfold store_get, History.res. rewrite Hst. reflexivity.
  Qed.
End Compose.

Section FilterIndep.
  Variable c : comparer.
  Hypothesis ok : comparer_ok c.
  Variable p : kparams.
  Hypothesis pok : kparams_ok p.
  Hypothesis seek_val : keyTypeSeek p <= keyTypeVal p.
  Variable mp : MemDB.mparams.
  Hypothesis mpok : MemDB.mparams_ok mp.
  Variable tp : tparams.
  Variable crc : bytes -> N.
  Variable decompress : bytes -> option bytes.
  Variable verify : bool.
  Variable ri : N.
  Variables (fname fname' : option bytes) (ufc ufc' : bytes -> N -> bytes -> bool).

  Lemma fetch_all_ext rd rd' hs : (forall h, tr_fetch rd h = tr_fetch rd' h) -> fetch_all rd hs = fetch_all rd' hs.
  Proof.
    intros E. induction hs as [|h hs IH]; [reflexivity|]. cbn [fetch_all]. rewrite (E h), IH. reflexivity.
  Qed.

  (* the index block and the data blocks of a reader do not depend on the reader's filter *)
  Lemma reader_filter_indep f :
    tr_index (tf_reader c tp crc decompress fname ufc verify f) = tr_index (tf_reader c tp crc decompress fname' ufc' verify f) /\
    forall h, tr_fetch (tf_reader c tp crc decompress fname ufc verify f) h = tr_fetch (tf_reader c tp crc decompress fname' ufc' verify f) h.
  Proof.
    unfold tf_reader, open_table, tr_broken.
    repeat match goal with
           | |- context [if ?b then _ else _] => destruct b; cbn [tr_index tr_fetch]; try (split; reflexivity)
           | |- context [match decode_bh ?x with _ => _ end] => destruct (decode_bh x); cbn [tr_index tr_fetch]; try (split; reflexivity)
           | |- context [match read_block_at ?a ?b ?cc ?d ?e ?g with _ => _ end] =>
               destruct (read_block_at a b cc d e g); cbn [tr_index tr_fetch]; try (split; reflexivity)
           end.
  Qed.

  Lemma table_parse_ext rd rd' : tr_index rd = tr_index rd' -> (forall h, tr_fetch rd h = tr_fetch rd' h) ->
    table_parse rd = table_parse rd'.
  Proof.
    intros Ei Ef. unfold table_parse. rewrite Ei.
    destruct (tr_index rd') as [ib| |]; try reflexivity.
    destruct (block_entries ib) as [ients| |]; try reflexivity.
    destruct (decode_handles ients) as [hs|]; try reflexivity.
    rewrite (fetch_all_ext rd rd' hs Ef). reflexivity.
  Qed.

  Lemma table_parse_filter_indep f :
    table_parse (tf_reader c tp crc decompress fname ufc verify f) = table_parse (tf_reader c tp crc decompress fname' ufc' verify f).
  Proof. destruct (reader_filter_indep f) as [Ei Ef]. apply table_parse_ext; assumption. Qed.

  Lemma tf_pairs_filter_indep f :
    tfile_okb c p tp crc decompress fname ufc verify ri f = true ->
    tfile_okb c p tp crc decompress fname' ufc' verify ri f = true ->
    tf_pairs c tp crc decompress fname ufc verify ri f = tf_pairs c tp crc decompress fname' ufc' verify ri f.
  Proof.
    unfold tfile_okb, tf_pairs, table_check. rewrite (table_parse_filter_indep f).
    destruct (table_parse _) as [[[bl se] hs]|]; [|discriminate].
    intros H1 H2.
    apply andb_prop in H1 as [H1 _]. apply andb_prop in H1 as [H1 _]. apply andb_prop in H1 as [H1 _]. apply andb_prop in H1 as [H1 _].
    apply andb_prop in H2 as [H2 _]. apply andb_prop in H2 as [H2 _]. apply andb_prop in H2 as [H2 _]. apply andb_prop in H2 as [H2 _].
    rewrite H1, H2. reflexivity.
  Qed.

  Lemma abs_filter_indep st :
    Forall (Forall (fun f => tfile_okb c p tp crc decompress fname ufc verify ri f = true)) (bs_levels st) ->
    Forall (Forall (fun f => tfile_okb c p tp crc decompress fname' ufc' verify ri f = true)) (bs_levels st) ->
    abs c mp tp crc decompress fname ufc verify ri st = abs c mp tp crc decompress fname' ufc' verify ri st.
  Proof.
    intros H1 H2. unfold abs. f_equal.
    induction (bs_levels st) as [|l ls IH]; [reflexivity|].
    inversion H1 as [|? ? Hl1 Hls1]; subst. inversion H2 as [|? ? Hl2 Hls2]; subst.
    cbn [map]. f_equal; [|apply IH; assumption].
    clear IH Hls1 Hls2 H1 H2. induction l as [|f l IH]; [reflexivity|].
    inversion Hl1 as [|? ? Hf1 Hl1']; subst. inversion Hl2 as [|? ? Hf2 Hl2']; subst.
    cbn [map]. f_equal; [|apply IH; assumption].
    unfold abs_table. rewrite (tf_pairs_filter_indep f Hf1 Hf2). reflexivity.
  Qed.

  (* two filter settings (none, another policy, another filter block reading) under which the state is
     well-formed give the same answer to every read *)
  Theorem filter_setting_irrelevant st k s : wf_bytes k -> s <= keyMaxSeq p ->
    wf_bstate c p mp tp crc decompress fname ufc verify ri st ->
    wf_bstate c p mp tp crc decompress fname' ufc' verify ri st ->
    db_get_bytes c p mp tp crc decompress fname ufc verify st k s =
    db_get_bytes c p mp tp crc decompress fname' ufc' verify st k s.
  Proof.
    intros Wk Hs W1 W2.
    rewrite (read_path_refines c ok p pok seek_val mp mpok tp crc decompress fname ufc verify ri k s Wk Hs st W1).
    rewrite (read_path_refines c ok p pok seek_val mp mpok tp crc decompress fname' ufc' verify ri k s Wk Hs st W2).
    rewrite (abs_filter_indep st (wb_tables _ _ _ _ _ _ _ _ _ _ _ W1) (wb_tables _ _ _ _ _ _ _ _ _ _ _ W2)). reflexivity.
  Qed.
End FilterIndep.
