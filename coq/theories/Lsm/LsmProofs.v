(* Lsm/LsmProofs.v — the read path of the L1 model returns the newest visible entry.
   The chain is proved for every comparer that satisfies the PREORDER contract (Base/OrderPre.v comparer_pre_ok:
   byte-different keys may compare equal and are then ONE user key; "the entry has user key k" reads
   cmp c (e_uk e) k = Eq, as Lsm.vis does), and for ONE probe (k, s) at a time: the conditions it needs speak about
   the entries visible to (k, s) only (older_vis, uniq_vis, chain_vis, wf_vis).  Both invariants of the development
   imply them: wf_state (byte equality of user keys; below, for comparer_ok) and LsmPreProofs.wf_state_pre (classes).
   A lemma whose name starts with p (pvis_true, pcomp_get_sorted, ...) is stated for the preorder contract; wf_state and
   the other definitions of Section Pre that speak of byte equality do not use the section's hypotheses. *)
From GL Require Import Base.OrderProofs Base.OrderPre Codec.IKeyProofs Codec.IKeyPreProofs Lsm.Lsm.
From GL Require Mem.ListLemmas.
From Coq Require Import Lia.

Section Pre.
  Variable c : comparer.
  Hypothesis ok : comparer_pre_ok c.
  Variable p : kparams.
  Hypothesis pok : kparams_ok p.

  Notation ecmp := (ecmp c).
  Notation find_ge := (find_ge c).
  Notation vis := (vis c).
  Notation newest := (newest c).

  (* strongly sorted by the internal order *)
  Fixpoint ssorted (l : list entry) : Prop :=
    match l with
    | [] => True
    | a :: l' => Forall (fun b => ecmp a b = Lt) l' /\ ssorted l'
    end.

  Definition kinds_ok (l : list entry) : Prop := Forall (fun e => e_kind e <= keyTypeSeek p) l.

  Lemma seek_lt_256 : keyTypeSeek p < 256.
  Proof. destruct pok as (_ & _ & _ & H & _). exact H. Qed.

  Lemma pbelow_probe e k s : e_kind e <= keyTypeSeek p ->
    icmp c (e_ikey e) (probe p k s) = Lt <->
    (cmp c (e_uk e) k = Lt \/ (cmp c (e_uk e) k = Eq /\ s < e_seq e)).
  Proof.
    intros Hk. unfold icmp, probe, e_ikey; cbn [uk num].
    destruct (cmp c (e_uk e) k) eqn:E.
    - rewrite N.compare_lt_iff. unfold pack.
      pose proof seek_lt_256. split.
      + intros H1. right. split; [reflexivity|]. nia.
      + intros [H1|[_ H1]]; [discriminate|]. nia.
    - split; auto.
    - split; [discriminate|]. intros [H1|[H1 _]]; discriminate.
  Qed.

  Lemma pvis_true e k s : vis k s e = true <-> (cmp c (e_uk e) k = Eq /\ e_seq e <= s).
  Proof.
    unfold Lsm.vis. destruct (cmp c (e_uk e) k) eqn:E.
    - rewrite N.leb_le. tauto.
    - split; [discriminate|]. intros [H _]. discriminate.
    - split; [discriminate|]. intros [H _]. discriminate.
  Qed.

  (* visibility depends on the class of the key only *)
  Lemma pvis_key_compat k k' s e : cmp c k k' = Eq -> vis k s e = vis k' s e.
  Proof. intros H. unfold Lsm.vis. rewrite (pcmp_eq_r c ok k k' (e_uk e) H). reflexivity. Qed.

  Lemma pvis_not_below e k s : e_kind e <= keyTypeSeek p -> vis k s e = true ->
    icmp c (e_ikey e) (probe p k s) <> Lt.
  Proof.
    intros Hk Hv H. apply pvis_true in Hv as [Hu Hs]. apply (pbelow_probe e k s Hk) in H.
    destruct H as [H|[_ H]]; [congruence|lia].
  Qed.

  Lemma pafter_same_key a b : kinds_ok [a; b] -> ecmp a b = Lt -> cmp c (e_uk a) (e_uk b) = Eq ->
    e_seq b <= e_seq a.
  Proof.
    intros Hk H Hu. unfold Lsm.ecmp, icmp, e_ikey in H; cbn [uk num] in H.
    rewrite Hu in H. rewrite N.compare_lt_iff in H. unfold pack in H.
    inversion Hk as [|? ? Ha Hk']; subst. inversion Hk' as [|? ? Hb _]; subst.
    pose proof seek_lt_256. nia.
  Qed.

  Lemma same_class_of_vis k s a b : vis k s a = true -> vis k s b = true -> cmp c (e_uk a) (e_uk b) = Eq.
  Proof.
    intros Va Vb. apply pvis_true in Va as [Ua _]. apply pvis_true in Vb as [Ub _].
    eapply (pcmp_eq_trans c ok); [exact Ua|]. apply (pcmp_eq_sym c ok). exact Ub.
  Qed.

  Lemma after_uk_le a b : ecmp a b = Lt -> cmp c (e_uk a) (e_uk b) <> Gt.
  Proof.
    unfold Lsm.ecmp, icmp, e_ikey; cbn [uk num]. destruct (cmp c (e_uk a) (e_uk b)); congruence.
  Qed.

  Lemma newest_app k s l1 l2 acc : newest k s (l1 ++ l2) acc = newest k s l2 (newest k s l1 acc).
  Proof. revert acc; induction l1 as [|e l1 IH]; intros acc; cbn [app Lsm.newest]; auto. Qed.

  Lemma newest_dominated k s l a :
    (forall x, In x l -> vis k s x = true -> e_seq x <= e_seq a) ->
    newest k s l (Some a) = Some a.
  Proof.
    induction l as [|e l IH]; intros H; cbn [Lsm.newest]; [reflexivity|].
    destruct (vis k s e) eqn:V.
    - cbn [newer]. assert (e_seq e <= e_seq a) by (apply H; [left; reflexivity|exact V]).
      replace (e_seq a <? e_seq e) with false by (symmetry; apply N.ltb_ge; lia).
      apply IH. intros x Hx. apply H. right; exact Hx.
    - apply IH. intros x Hx. apply H. right; exact Hx.
  Qed.

  Lemma newest_none k s l : (forall x, In x l -> vis k s x = false) -> forall acc, newest k s l acc = acc.
  Proof.
    induction l as [|e l IH]; intros H acc; cbn [Lsm.newest]; [reflexivity|].
    rewrite (H e) by (left; reflexivity). apply IH. intros x Hx. apply H. right; exact Hx.
  Qed.

  Definition seq_of (a : option entry) : option N := option_map e_seq a.

  Fixpoint first_vis (k : bytes) (s : N) (l : list entry) : option entry :=
    match l with
    | [] => None
    | e :: l' => if vis k s e then Some e else first_vis k s l'
    end.

  Lemma first_vis_in k s l e : first_vis k s l = Some e -> In e l /\ vis k s e = true.
  Proof.
    induction l as [|x l IH]; cbn [first_vis]; [discriminate|].
    destruct (vis k s x) eqn:V.
    - intros H; injection H as <-. split; [left; reflexivity|exact V].
    - intros H. destruct (IH H). split; [right|]; assumption.
  Qed.

  Lemma first_vis_none k s l : first_vis k s l = None -> forall x, In x l -> vis k s x = false.
  Proof.
    induction l as [|y l IH]; cbn [first_vis]; intros H x Hx; [destruct Hx|].
    destruct (vis k s y) eqn:V; [discriminate|]. destruct Hx as [<-|Hx]; [exact V|]. apply IH; assumption.
  Qed.

  Lemma psorted_first_dominates k s e l : kinds_ok (e :: l) -> ssorted (e :: l) -> vis k s e = true ->
    forall x, In x l -> vis k s x = true -> e_seq x <= e_seq e.
  Proof.
    intros Hk [Hall _] Ve x Hx Vx.
    rewrite Forall_forall in Hall. specialize (Hall x Hx).
    apply pafter_same_key; [|exact Hall|eapply same_class_of_vis; eauto].
    unfold kinds_ok in *. rewrite Forall_forall in Hk.
    repeat constructor; apply Hk; [left; reflexivity|right; exact Hx].
  Qed.

  Lemma kinds_ok_in l x : kinds_ok l -> In x l -> e_kind x <= keyTypeSeek p.
  Proof. unfold kinds_ok. rewrite Forall_forall. auto. Qed.

  Lemma kinds_ok_tl e l : kinds_ok (e :: l) -> kinds_ok l.
  Proof. intros H. inversion H; assumption. Qed.

  Lemma pnewest_sorted k s l acc : kinds_ok l -> ssorted l ->
    newest k s l acc = match first_vis k s l with Some e => newer acc e | None => acc end.
  Proof.
    revert acc; induction l as [|e l IH]; intros acc Hk Hs; cbn [Lsm.newest first_vis]; [reflexivity|].
    destruct (vis k s e) eqn:V.
    - pose proof (psorted_first_dominates k s e l Hk Hs V) as D.
      destruct acc as [a|]; cbn [newer].
      + destruct (e_seq a <? e_seq e) eqn:L.
        * apply newest_dominated. exact D.
        * apply newest_dominated. intros x Hx Vx. apply N.ltb_ge in L. specialize (D x Hx Vx). lia.
      + apply newest_dominated. exact D.
    - apply IH; [eapply kinds_ok_tl; eauto|apply Hs].
  Qed.

  Lemma pfind_ge_sorted k s l : kinds_ok l -> ssorted l ->
    match find_ge (probe p k s) l with
    | Some e => match cmp c (e_uk e) k with
                | Eq => first_vis k s l = Some e
                | _ => first_vis k s l = None
                end
    | None => first_vis k s l = None
    end.
  Proof.
    induction l as [|e l IH]; intros Hk Hs; cbn [Lsm.find_ge first_vis]; [reflexivity|].
    assert (Hke : e_kind e <= keyTypeSeek p) by (inversion Hk; assumption).
    destruct (icmp c (e_ikey e) (probe p k s)) eqn:E.
    - apply (picmp_eq c) in E. unfold probe, e_ikey in E. cbn [uk num] in E. destruct E as [Eu En].
      rewrite Eu.
      assert (V : vis k s e = true).
      { apply pvis_true. split; [exact Eu|]. unfold pack in En. pose proof seek_lt_256. nia. }
      rewrite V. reflexivity.
    - assert (V : vis k s e = false).
      { destruct (vis k s e) eqn:V; [|reflexivity]. exfalso. eapply pvis_not_below; eauto. }
      rewrite V. apply IH; [eapply kinds_ok_tl; eauto|apply Hs].
    - assert (NB : ~ (cmp c (e_uk e) k = Lt \/ (cmp c (e_uk e) k = Eq /\ s < e_seq e))).
      { intros H. apply (pbelow_probe e k s Hke) in H. congruence. }
      destruct (cmp c (e_uk e) k) eqn:U.
      + assert (V : vis k s e = true).
        { apply pvis_true; split; [exact U|].
          destruct (N.le_gt_cases (e_seq e) s) as [Hle|Hgt]; [exact Hle|].
          exfalso. apply NB. right. split; [reflexivity|lia]. }
        rewrite V. reflexivity.
      + exfalso. apply NB. left. reflexivity.
      + assert (V : vis k s e = false) by (unfold Lsm.vis; rewrite U; reflexivity).
        rewrite V.
        destruct (first_vis k s l) as [x|] eqn:F; [|reflexivity]. exfalso.
        apply first_vis_in in F as [Hx Vx]. apply pvis_true in Vx as [Vx _].
        destruct Hs as [Hall _]. rewrite Forall_forall in Hall. specialize (Hall x Hx).
        apply after_uk_le in Hall. rewrite (pcmp_eq_r c ok (e_uk x) k (e_uk e) Vx) in Hall.
        apply Hall. exact U.
  Qed.

  Lemma pcomp_get_sorted k s l : kinds_ok l -> ssorted l ->
    comp_get c p l k s = group_res p (first_vis k s l).
  Proof.
    intros Hk Hs. pose proof (pfind_ge_sorted k s l Hk Hs) as H. unfold comp_get.
    destruct (find_ge (probe p k s) l) as [e|]; [|rewrite H; reflexivity].
    destruct (cmp c (e_uk e) k); rewrite H; reflexivity.
  Qed.

  Lemma pcomp_get_newest k s l : kinds_ok l -> ssorted l ->
    comp_get c p l k s = group_res p (newest k s l None).
  Proof.
    intros Hk Hs. rewrite pcomp_get_sorted, pnewest_sorted by assumption.
    destruct (first_vis k s l); reflexivity.
  Qed.

  Lemma newest_in k s l acc a : newest k s l acc = Some a ->
    acc = Some a \/ (In a l /\ vis k s a = true).
  Proof.
    revert acc; induction l as [|e l IH]; intros acc; cbn [Lsm.newest]; [auto|].
    intros H. apply IH in H. destruct H as [H|[H1 H2]]; [|right; split; [right|]; assumption].
    destruct (vis k s e) eqn:V; [|left; exact H].
    destruct acc as [x|]; cbn [newer] in H.
    - destruct (e_seq x <? e_seq e); [|left; exact H].
      injection H as <-. right. split; [left; reflexivity|exact V].
    - injection H as <-. right. split; [left; reflexivity|exact V].
  Qed.

  (* among the entries visible to (k, s), those of [lo] are older than those of [hi] *)
  Definition older_vis (k : bytes) (s : N) (hi lo : list entry) : Prop :=
    forall a b, In a hi -> In b lo -> vis k s a = true -> vis k s b = true -> e_seq b < e_seq a.

  Lemma chain_step_vis k s A R : older_vis k s A R ->
    newest k s (A ++ R) None =
    match newest k s A None with Some a => Some a | None => newest k s R None end.
  Proof.
    intros HN. rewrite newest_app. destruct (newest k s A None) as [a|] eqn:E; [|reflexivity].
    apply newest_dominated. intros x Hx Vx.
    apply newest_in in E as [E|[Ha Va]]; [discriminate|].
    assert (e_seq x < e_seq a) by (apply (HN a x Ha Hx Va Vx)). lia.
  Qed.

  Lemma res_nonmiss a : res_of p a <> GMiss.
  Proof. unfold res_of. destruct (e_kind a =? keyTypeDel p); discriminate. Qed.

  Lemma group_res_miss z : group_res p z = GMiss <-> z = None.
  Proof.
    destruct z as [e|]; cbn; [|tauto]. unfold res_of. destruct (e_kind e =? keyTypeDel p); split; discriminate.
  Qed.

  Definition table_ok (t : table) : Prop := ssorted (t_entries t) /\ kinds_ok (t_entries t).
  Definition tables_ok (ts : list table) : Prop := Forall table_ok ts.
  Definition level_entries (ts : list table) : list entry := concat (map t_entries ts).
  Definition keyseq (e : entry) : bytes * N := (e_uk e, e_seq e).
  Definition uniq (l : list entry) : Prop := NoDup (map keyseq l).

  Lemma pssorted_hd_le l f x : ssorted l -> hd_error l = Some f -> In x l -> cmp c (e_uk f) (e_uk x) <> Gt.
  Proof.
    destruct l as [|y l]; cbn; [discriminate|]. intros [Hall _] H Hx. injection H as <-.
    destruct Hx as [<-|Hx]; [rewrite (pcmp_refl c ok); discriminate|].
    rewrite Forall_forall in Hall. apply after_uk_le. apply Hall. exact Hx.
  Qed.

  Lemma last_some_in (l : list entry) x : last (map Some l) None = Some x -> In x l.
  Proof.
    induction l as [|y l IH]; cbn [map last]; [discriminate|].
    destruct l as [|z l']; cbn [map] in *.
    - intros H; injection H as <-. left; reflexivity.
    - intros H. right. apply IH. exact H.
  Qed.

  Lemma last_none_nil (l : list entry) : last (map Some l) None = None -> l = [].
  Proof.
    induction l as [|y l IH]; [reflexivity|]. cbn [map last].
    destruct l as [|z l']; cbn [map] in *; [discriminate|]. intros H. specialize (IH H). discriminate.
  Qed.

  Lemma ssorted_last_ge l x y : ssorted l -> last (map Some l) None = Some y -> In x l ->
    x = y \/ ecmp x y = Lt.
  Proof.
    induction l as [|e l IH]; cbn [map last]; [discriminate|].
    intros [Hall Hs] HL Hx. destruct l as [|z l'].
    - cbn in HL. injection HL as <-. destruct Hx as [<-|[]]. left; reflexivity.
    - cbn [map] in *. destruct Hx as [<-|Hx].
      + right. rewrite Forall_forall in Hall. apply Hall. apply last_some_in. exact HL.
      + apply IH; assumption.
  Qed.

  Lemma pcovers_of_member t x k : ssorted (t_entries t) -> In x (t_entries t) -> cmp c (e_uk x) k = Eq ->
    t_covers c t k = true.
  Proof.
    intros Hs Hx Hxk. unfold t_covers, t_first, t_last.
    destruct (hd_error (t_entries t)) as [f|] eqn:F.
    2:{ destruct (t_entries t); [destruct Hx|discriminate]. }
    destruct (last (map Some (t_entries t)) None) as [l|] eqn:L.
    2:{ apply last_none_nil in L. rewrite L in Hx. destruct Hx. }
    apply andb_true_intro. split; apply (leb_le c).
    - unfold le. rewrite <- (pcmp_eq_r c ok (e_uk x) k (e_uk f) Hxk). apply (pssorted_hd_le _ f x Hs F Hx).
    - unfold le. rewrite <- (pcmp_eq_l c ok (e_uk x) k (e_uk l) Hxk).
      destruct (ssorted_last_ge _ x l Hs L Hx) as [->|H].
      + rewrite (pcmp_refl c ok). discriminate.
      + apply after_uk_le. exact H.
  Qed.

  (* no two different entries visible to (k, s) have the same sequence number *)
  Definition uniq_vis (k : bytes) (s : N) (l : list entry) : Prop :=
    forall a b, In a l -> In b l -> vis k s a = true -> vis k s b = true -> e_seq a = e_seq b -> a = b.

  (* level 0 / aux group = newest over the group's entries.  The group keeps the later table on a tie (<=?), newest
     the earlier entry (<?): they agree because a tie can only be between an entry and itself. *)
  Lemma group_get_newest_vis k s ts z :
    tables_ok ts ->
    (forall ze, z = Some ze -> vis k s ze = true) ->
    uniq_vis k s (match z with Some ze => [ze] | None => [] end ++ level_entries ts) ->
    group_get c p ts k s z = newest k s (level_entries ts) z.
  Proof.
    revert z; induction ts as [|t ts IH]; intros z Hok Hz Hnd; cbn [group_get]; [reflexivity|].
    unfold level_entries in *. cbn [map concat] in *. rewrite newest_app.
    inversion Hok as [|? ? [Hs Hk] Hok']; subst.
    assert (Z' : (if t_covers c t k then
                    match find_ge (probe p k s) (t_entries t) with
                    | Some e => match cmp c (e_uk e) k with
                                | Eq => match z with
                                        | Some ze => if e_seq ze <=? e_seq e then Some e else z
                                        | None => Some e end
                                | _ => z end
                    | None => z end
                  else z) = newest k s (t_entries t) z).
    { rewrite (pnewest_sorted k s _ z Hk Hs).
      pose proof (pfind_ge_sorted k s _ Hk Hs) as FG.
      destruct (first_vis k s (t_entries t)) as [e|] eqn:FV.
      - apply first_vis_in in FV as FV'. destruct FV' as [He Ve]. apply pvis_true in Ve as Ve'. destruct Ve' as [Ue _].
        rewrite (pcovers_of_member t e k Hs He Ue).
        destruct (find_ge (probe p k s) (t_entries t)) as [e'|]; [|discriminate].
        destruct (cmp c (e_uk e') k); try discriminate. injection FG as FGe; subst e'.
        destruct z as [ze|]; cbn [newer]; [|reflexivity].
        destruct (N.eq_dec (e_seq ze) (e_seq e)) as [Heq|Hne].
        + rewrite (Hnd ze e) by (auto using in_eq, in_cons, in_or_app). rewrite N.leb_refl, N.ltb_irrefl. reflexivity.
        + destruct (e_seq ze <=? e_seq e) eqn:A; destruct (e_seq ze <? e_seq e) eqn:B; try reflexivity; lia.
      - destruct (t_covers c t k); [|reflexivity].
        destruct (find_ge (probe p k s) (t_entries t)) as [e'|]; [|reflexivity].
        destruct (cmp c (e_uk e') k); try reflexivity. discriminate. }
    rewrite Z'. apply IH.
    - exact Hok'.
    - intros ze Hze. apply newest_in in Hze as [Hze|[_ V]]; [apply Hz; exact Hze|exact V].
    - (* the new accumulator is the old one or an entry of t *)
      assert (Sub : forall x, In x (match newest k s (t_entries t) z with Some a => [a] | None => [] end ++ concat (map t_entries ts)) ->
                    In x (match z with Some ze => [ze] | None => [] end ++ t_entries t ++ concat (map t_entries ts))).
      { intros x Hx. apply in_app_or in Hx as [Hx|Hx]; [|auto using in_or_app].
        destruct (newest k s (t_entries t) z) as [a|] eqn:EA; [|destruct Hx]. destruct Hx as [<-|[]].
        apply newest_in in EA as [->|[Ha _]]; [left; reflexivity|auto using in_or_app]. }
      intros a b Ha Hb. apply Hnd; apply Sub; assumption.
  Qed.

  Fixpoint level_sorted (ts : list table) : Prop :=
    match ts with
    | [] => True
    | t :: ts' =>
        Forall (fun t' => forall x y, In x (t_entries t) -> In y (t_entries t') -> cmp c (e_uk x) (e_uk y) = Lt) ts'
        /\ level_sorted ts'
    end.

  Lemma level_get_cons_skip t ts k s :
    (t_last t = None \/ exists l, t_last t = Some l /\ icmp c (e_ikey l) (probe p k s) = Lt) ->
    level_get c p (t :: ts) k s = level_get c p ts k s.
  Proof.
    intros H. unfold level_get. cbn [search_max].
    destruct H as [->|[l [-> ->]]]; reflexivity.
  Qed.

  Lemma plevel_get_newest k s ts : tables_ok ts -> level_sorted ts ->
    level_get c p ts k s = group_res p (newest k s (level_entries ts) None).
  Proof.
    induction ts as [|t ts IH]; intros Hok Hls; [reflexivity|].
    inversion Hok as [|? ? [Hs Hk] Hok']; subst. destruct Hls as [Hsep Hls].
    unfold level_entries. cbn [map concat]. fold (level_entries ts).
    destruct (t_last t) as [l|] eqn:L.
    2:{ rewrite level_get_cons_skip by (left; exact L).
        unfold t_last in L. apply last_none_nil in L. rewrite L. cbn [app]. apply IH; assumption. }
    assert (Cases : icmp c (e_ikey l) (probe p k s) = Lt \/ icmp c (e_ikey l) (probe p k s) <> Lt)
      by (destruct (icmp c (e_ikey l) (probe p k s)); [right|left|right]; congruence).
    destruct Cases as [E|NBl].
    { rewrite level_get_cons_skip by (right; exists l; split; [exact L|exact E]).
      assert (Hl : In l (t_entries t)) by (apply last_some_in; exact L).
      rewrite newest_app, (newest_none k s (t_entries t)); [apply IH; assumption|].
      intros x Hx. destruct (vis k s x) eqn:V; [|reflexivity]. exfalso.
      assert (Hkx : e_kind x <= keyTypeSeek p) by (apply (kinds_ok_in _ _ Hk Hx)).
      apply (pvis_not_below x k s Hkx V).
      destruct (ssorted_last_ge _ x l Hs L Hx) as [->|Hxl]; [exact E|].
      eapply (picmp_trans c ok); eauto. }
    assert (Hl : In l (t_entries t)) by (apply last_some_in; exact L).
    assert (Hkl : e_kind l <= keyTypeSeek p) by (apply (kinds_ok_in _ _ Hk Hl)).
    assert (Ul : cmp c (e_uk l) k <> Lt).
    { intros U. apply NBl. apply (pbelow_probe l k s Hkl). left. exact U. }
    assert (Rest : forall y, In y (level_entries ts) -> vis k s y = false).
    { intros y Hy. destruct (vis k s y) eqn:V; [|reflexivity]. exfalso.
      apply pvis_true in V as [Uy _]. unfold level_entries in Hy.
      apply in_concat in Hy as [es [Hes Hy]]. apply in_map_iff in Hes as [t' [<- Ht']].
      rewrite Forall_forall in Hsep. specialize (Hsep t' Ht' l y Hl Hy).
      rewrite (pcmp_eq_r c ok (e_uk y) k (e_uk l) Uy) in Hsep.
      apply Ul. exact Hsep. }
    rewrite newest_app, (newest_none k s _ Rest).
    assert (SM : search_max c (t :: ts) (probe p k s) = Some t).
    { cbn [search_max]. rewrite L. destruct (icmp c (e_ikey l) (probe p k s)); congruence. }
    unfold level_get. rewrite SM.
    destruct (t_first t) as [f|] eqn:F;
      [|unfold t_first in F; destruct (t_entries t); [destruct Hl|discriminate]].
    destruct (Order.leb c (e_uk f) k) eqn:LB; [apply pcomp_get_newest; assumption|].
    rewrite (newest_none k s (t_entries t)); [reflexivity|].
    intros x Hx; destruct (vis k s x) eqn:V; [|reflexivity]; exfalso.
    apply pvis_true in V as [Ux _].
    pose proof (pssorted_hd_le _ f x Hs F Hx) as HH.
    rewrite (pcmp_eq_r c ok (e_uk x) k (e_uk f) Ux) in HH.
    apply (leb_le c) in HH; congruence.
  Qed.

  Fixpoint chain_vis (k : bytes) (s : N) (cs : list (list entry)) : Prop :=
    match cs with
    | [] => True
    | x :: rest => Forall (older_vis k s x) rest /\ chain_vis k s rest
    end.

  Lemma older_vis_concat k s x rest : Forall (older_vis k s x) rest -> older_vis k s x (concat rest).
  Proof.
    intros H a b Ha Hb. apply in_concat in Hb as [y [Hy Hb]].
    rewrite Forall_forall in H. exact (H y Hy a b Ha Hb).
  Qed.

  (* a component that answers first, over those below it *)
  Lemma get_layered k s A rest (ga gr : gres) :
    ga = group_res p (newest k s A None) -> Forall (older_vis k s A) rest -> gr = group_res p (newest k s (concat rest) None) ->
    match ga with GFound v => GFound v | GDeleted => GDeleted | GMiss => gr end = group_res p (newest k s (concat (A :: rest)) None).
  Proof.
    intros -> H ->. rewrite concat_cons, (chain_step_vis k s A _ (older_vis_concat k s A rest H)).
    destruct (newest k s A None) as [a|]; cbn [group_res]; [|reflexivity].
    pose proof (res_nonmiss a). destruct (res_of p a); congruence.
  Qed.

  Definition level_ok (ts : list table) : Prop := tables_ok ts /\ level_sorted ts.

  Lemma deep_get_newest_vis k s lvls : Forall level_ok lvls -> chain_vis k s (map level_entries lvls) ->
    deep_get c p lvls k s = group_res p (newest k s (concat (map level_entries lvls)) None).
  Proof.
    induction lvls as [|ts rest IH]; intros Hok Hch; [reflexivity|].
    inversion Hok as [|? ? [H1 H2] Hok']; subst. cbn [map] in Hch. destruct Hch as [Hn Hch].
    cbn [deep_get map concat].
    apply get_layered; [apply plevel_get_newest; assumption|exact Hn|apply IH; assumption].
  Qed.

  (* every entry of [lo] with the user key of an entry of [hi] is older *)
  Definition newer_thanP (hi lo : list entry) : Prop :=
    forall a b, In a hi -> In b lo -> e_uk a = e_uk b -> e_seq b < e_seq a.

  Fixpoint chain_newer (cs : list (list entry)) : Prop :=
    match cs with
    | [] => True
    | x :: rest => Forall (fun y => newer_thanP x y) rest /\ chain_newer rest
    end.

  Definition comps (st : lstate) : list (list entry) :=
    st_mem st :: st_frozen st :: level_entries (st_aux st) :: map level_entries (st_levels st).

  Record wf_state (st : lstate) : Prop := {
    wf_mem : ssorted (st_mem st) /\ kinds_ok (st_mem st);
    wf_frozen : ssorted (st_frozen st) /\ kinds_ok (st_frozen st);
    wf_aux : tables_ok (st_aux st) /\ uniq (level_entries (st_aux st));
    wf_l0 : tables_ok (hd [] (st_levels st)) /\ uniq (level_entries (hd [] (st_levels st)));
    wf_deep : Forall level_ok (tl (st_levels st));
    wf_chain : chain_newer (comps st)
  }.

  Lemma all_entries_comps st : all_entries st = concat (comps st).
  Proof.
    unfold all_entries, all_tables, comps. cbn [concat]. f_equal. f_equal.
    rewrite map_app, concat_app. f_equal.
    induction (st_levels st) as [|l ls IH]; [reflexivity|].
    cbn [concat map]. rewrite map_app, concat_app, IH. reflexivity.
  Qed.

  Lemma wf_state_version v : tables_ok (hd [] v) -> uniq (level_entries (hd [] v)) -> Forall level_ok (tl v) ->
    chain_newer (map level_entries v) ->
    wf_state {| st_mem := []; st_frozen := []; st_aux := []; st_levels := v |}.
  Proof.
    intros T U D C.
    assert (E : forall l : list (list entry), Forall (fun y => newer_thanP [] y) l).
    { intros l. rewrite Forall_forall. intros y _ a b []. }
    constructor; cbn [st_mem st_frozen st_aux st_levels]; try (split; [exact I|constructor]); try assumption.
    - split; constructor.
    - split; assumption.
    - unfold comps; cbn [st_mem st_frozen st_aux st_levels chain_newer]. repeat (split; [apply E|]). exact C.
  Qed.

  (* what Get(k, s) needs of the layout *)
  Record wf_vis (k : bytes) (s : N) (st : lstate) : Prop := {
    vwf_mem : ssorted (st_mem st) /\ kinds_ok (st_mem st);
    vwf_frozen : ssorted (st_frozen st) /\ kinds_ok (st_frozen st);
    vwf_aux : tables_ok (st_aux st) /\ uniq_vis k s (level_entries (st_aux st));
    vwf_l0 : tables_ok (hd [] (st_levels st)) /\ uniq_vis k s (level_entries (hd [] (st_levels st)));
    vwf_deep : Forall level_ok (tl (st_levels st));
    vwf_chain : chain_vis k s (comps st)
  }.

  (* DB.get / version.get returns the newest entry of k's class with seq <= s among all stored entries *)
  Theorem get_correct_vis st k s : wf_vis k s st ->
    lsm_get c p st k s = group_res p (newest k s (all_entries st) None).
  Proof.
    intros [[Hm1 Hm2] [Hf1 Hf2] [Ha1 Ha2] [H01 H02] Hd Hch].
    rewrite all_entries_comps. unfold comps in *. cbn [chain_vis] in Hch.
    destruct Hch as [Nm [Nf [Na Hch]]].
    unfold lsm_get, version_get.
    apply get_layered; [apply pcomp_get_newest; assumption|exact Nm|].
    apply get_layered; [apply pcomp_get_newest; assumption|exact Nf|].
    rewrite (group_get_newest_vis k s (st_aux st) None Ha1) by (try discriminate; exact Ha2).
    apply get_layered; [reflexivity|exact Na|].
    destruct (st_levels st) as [|l0 rest]; [reflexivity|]. cbn [hd tl map] in *. destruct Hch as [N0 Hch].
    rewrite (group_get_newest_vis k s l0 None H01) by (try discriminate; exact H02).
    apply get_layered; [reflexivity|exact N0|].
    apply deep_get_newest_vis; assumption.
  Qed.
End Pre.

Section Proofs.
  Variable c : comparer.
  Hypothesis ok : comparer_ok c.
  Variable p : kparams.
  Hypothesis pok : kparams_ok p.

  Notation ecmp := (ecmp c).
  Notation vis := (vis c).
  Notation newest := (newest c).
  Notation wf_state := (wf_state c p).

  Lemma vis_true e k s : vis k s e = true <-> (e_uk e = k /\ e_seq e <= s).
  Proof. rewrite pvis_true. split; intros [H1 H2]; (split; [apply (cmp_eq c ok); exact H1|exact H2]). Qed.

  Lemma ecmp_lt_trans a b d : ecmp a b = Lt -> ecmp b d = Lt -> ecmp a d = Lt.
  Proof. apply (icmp_trans c ok). Qed.

  Lemma newer_thanP_vis k s hi lo : newer_thanP hi lo -> older_vis c k s hi lo.
  Proof.
    intros H a b Ha Hb Va Vb. apply vis_true in Va as [Ua _]. apply vis_true in Vb as [Ub _].
    apply (H a b Ha Hb). congruence.
  Qed.

  Lemma chain_step k s A R : newer_thanP A R ->
    newest k s (A ++ R) None =
    match newest k s A None with Some a => Some a | None => newest k s R None end.
  Proof. intros H. apply chain_step_vis. apply newer_thanP_vis. exact H. Qed.

  Lemma newer_thanP_concat x rest : Forall (fun y => newer_thanP x y) rest -> newer_thanP x (concat rest).
  Proof.
    intros H a b Ha Hb. apply in_concat in Hb as [y [Hy Hb]].
    rewrite Forall_forall in H. exact (H y Hy a b Ha Hb).
  Qed.

  Lemma uniq_vis_of k s l : uniq l -> uniq_vis c k s l.
  Proof.
    intros H a b Ha Hb Va Vb E. apply vis_true in Va as [Ua _]. apply vis_true in Vb as [Ub _].
    apply (ListLemmas.NoDup_map_inj keyseq l a b H Ha Hb). unfold keyseq. congruence.
  Qed.

  Lemma chain_newer_vis k s cs : chain_newer cs -> chain_vis c k s cs.
  Proof.
    induction cs as [|x rest IH]; cbn; [auto|]. intros [H1 H2]. split; [|apply IH; exact H2].
    rewrite Forall_forall in *. intros y Hy. apply newer_thanP_vis. apply H1. exact Hy.
  Qed.

  Lemma wf_state_vis st k s : wf_state st -> wf_vis c p k s st.
  Proof.
    intros [H1 H2 [H3 H3'] [H4 H4'] H5 H6]. constructor; auto using chain_newer_vis.
    - split; [exact H3|apply uniq_vis_of; exact H3'].
    - split; [exact H4|apply uniq_vis_of; exact H4'].
  Qed.

  Theorem get_correct st k s : wf_state st ->
    lsm_get c p st k s = group_res p (newest k s (all_entries st) None).
  Proof. intros H. apply (get_correct_vis c (comparer_ok_pre c ok) p pok). apply wf_state_vis. exact H. Qed.

  Corollary get_refines_spec st k s : wf_state st ->
    api_of (lsm_get c p st k s) = spec_get c p st k s.
  Proof. intros H. unfold spec_get. rewrite (get_correct st k s H). reflexivity. Qed.
End Proofs.
