(* Lsm/RangeReads.v — the loops of Lsm/RangeCompact.v do not change what a read returns: every table compaction they
   perform (trivial move or rewrite of a model-picked compaction) preserves, for every key, the newest visible entry's
   result at every sequence number >= the compaction's minSeq (ReorgProofs.compaction_preserves through
   C06Steps.model_compaction_admissible); composed over the passes of compact_range and the steps of auto_loop, and
   stated for the read path: api_of (lsm_get ...) on the final version = on the initial one. *)
From GL Require Import Lsm.LsmProofs Lsm.ReorgProofs Lsm.WfLsm Lsm.ModelStep Lsm.FlushProofs Lsm.C06Steps
  Lsm.RangeCompact Lsm.RangeStep Lsm.RangeProofs Lsm.AutoProofs.
From Coq Require Import ZArith Lia.

Local Open Scope nat_scope.

Definition lst (v : list (list table)) : lstate := {| st_mem := []; st_frozen := []; st_aux := []; st_levels := v |}.

Section Reads.
  Variable c : comparer.
  Hypothesis ok : comparer_ok c.
  Variable p : kparams.
  Hypothesis pok : kparams_ok p.
  Variable sz : table -> N.

  Notation wf_lsm := (wf_lsm c p).
  Notation res := (History.res p).

  (* the answer of a read of k at s, judged on all stored entries *)
  Definition answer (v : list (list table)) (k : bytes) (s : N) : option bytes :=
    res (newest c k s (LE (concat v)) None).

  Lemma answer_is_get v k s : wf_lsm v -> api_of (lsm_get c p (lst v) k s) = answer v k s.
  Proof.
    intros W. rewrite (get_refines_spec c ok p pok (lst v) k s (wf_lsm_wf_state c p v W)).
    unfold spec_get, answer, History.res, all_entries, all_tables, lst. cbn [st_mem st_frozen st_aux st_levels app].
    reflexivity.
  Qed.

  Lemma uniq_in_version v : wf_lsm v -> uniq_in (LE (concat v)).
  Proof.
    intros W a b Ha Hb Hu Hs. apply in_LE_concat in Ha as [i Ha]. apply in_LE_concat in Hb as [j Hb].
    apply (wf_uniq_global c p v i j a b W Ha Hb Hu Hs).
  Qed.

  Variable v : list (list table).
  Hypothesis W : wf_lsm v.
  Variable lvl : nat.
  Variable limit : N.
  Variable seed : list table.
  Hypothesis Sk : seed_ok v lvl seed.
  Variable cm : compaction.
  Hypothesis En : new_compaction c sz v lvl limit seed = POk cm.
  Variable outs : list table.
  Variable nv : list (list table).
  Hypothesis Wn : wf_lsm nv.
  Hypothesis Ef : step_effect v cm outs nv.

  Let t0 := c_t0 cm.
  Let t1 := c_t1 cm.
  Let others := filter (fun t => negb (is_input (nums_of (t0 ++ t1)) t)) (concat v).

  Lemma cm_facts : c_level cm = lvl /\ incl t0 (lv v lvl) /\ incl t1 (lv v (S lvl)).
  Proof.
    destruct Sk as [S1 [S2 S3]]. destruct (model_pick c ok p sz v W lvl limit seed S1 S2 S3) as [cm' [E' Pk]].
    rewrite En in E'. injection E' as <-. split; [apply (pk_level c v lvl seed cm Pk)|].
    split; [apply (pk_t0 c v lvl seed cm Pk)|apply (pk_t1 c v lvl seed cm Pk)].
  Qed.

  (* a live table is an input iff its number is an input number *)
  Lemma is_input_iff t i : In t (lv v i) -> (is_input (nums_of (t0 ++ t1)) t = true <-> In t t0 \/ In t t1).
  Proof.
    intros Ht. destruct cm_facts as [El [I0 I1]]. unfold is_input. rewrite existsb_exists. split.
    - intros [n [Hn E]]. apply N.eqb_eq in E. subst n. unfold nums_of in Hn. apply in_map_iff in Hn as [u [Eu Hu]].
      apply in_app_or in Hu as [Hu|Hu].
      + left. destruct (wl_nums c p v W lvl i u t (I0 u Hu) Ht Eu) as [_ ->]. exact Hu.
      + right. destruct (wl_nums c p v W (S lvl) i u t (I1 u Hu) Ht Eu) as [_ ->]. exact Hu.
    - intros H. exists (t_num t). split; [|apply N.eqb_refl]. unfold nums_of. apply in_map. apply in_or_app. exact H.
  Qed.

  Lemma others_iff t : In t others <-> (exists i, In t (lv v i)) /\ ~ In t t0 /\ ~ In t t1.
  Proof.
    unfold others. rewrite filter_In. split.
    - intros [H1 H2]. destruct (in_concat_lv v t H1) as [i Hi]. split; [exists i; exact Hi|].
      apply Bool.negb_true_iff in H2. split; intros Q; apply Bool.not_true_iff_false in H2; apply H2;
        apply (is_input_iff t i Hi); [left|right]; exact Q.
    - intros [[i Hi] [N0 N1]]. split; [apply (in_level_concat v i t Hi)|]. apply Bool.negb_true_iff.
      apply Bool.not_true_iff_false. intros Q. apply (is_input_iff t i Hi) in Q as [Q|Q]; contradiction.
  Qed.

  (* the tables of the new version: the surviving ones and the outputs *)
  Lemma new_tables t : (exists i, In t (lv nv i)) <-> In t others \/ In t outs.
  Proof.
    destruct cm_facts as [El [I0 I1]].
    destruct Ef as [a [_ [_ [_ [Hoth [HL [HS [HS2 [HO HL2]]]]]]]]]. rewrite El in Hoth, HL, HS, HS2, HO, HL2. split.
    - intros [i Hi]. destruct (Nat.eq_dec i lvl) as [->|Q1]; [|destruct (Nat.eq_dec i (S lvl)) as [->|Q2]].
      + destruct (HL t Hi) as [H1 H2]. left. apply others_iff. split; [exists lvl; exact H1|]. split; [exact H2|].
        intros Q. destruct (wl_nums c p v W lvl (S lvl) t t H1 (I1 t Q) eq_refl) as [Q' _]. lia.
      + destruct (HS t Hi) as [[H1 H2]|H1]; [|right; exact H1]. left. apply others_iff.
        split; [exists (S lvl); exact H1|]. split; [|exact H2].
        intros Q. destruct (wl_nums c p v W lvl (S lvl) t t (I0 t Q) H1 eq_refl) as [Q' _]. lia.
      + rewrite (Hoth i Q1 Q2) in Hi. left. apply others_iff. split; [exists i; exact Hi|]. split; intros Q.
        * destruct (wl_nums c p v W lvl i t t (I0 t Q) Hi eq_refl) as [Q' _]. lia.
        * destruct (wl_nums c p v W (S lvl) i t t (I1 t Q) Hi eq_refl) as [Q' _]. lia.
    - intros [H|H]; [|exists (S lvl); apply HO; exact H]. apply others_iff in H as [[i Hi] [N0 N1]].
      exists i. destruct (Nat.eq_dec i lvl) as [->|Q1]; [|destruct (Nat.eq_dec i (S lvl)) as [->|Q2]].
      + apply HL2; assumption.
      + apply HS2; assumption.
      + rewrite (Hoth i Q1 Q2). exact Hi.
  Qed.

  Lemma new_entries x : In x (LE (concat nv)) <-> In x (LE outs ++ LE others).
  Proof.
    rewrite in_app_iff, !LE_in. split.
    - intros [t [Ht Hx]]. destruct (in_concat_lv nv t Ht) as [i Hi].
      destruct (proj1 (new_tables t) (ex_intro _ i Hi)) as [H|H]; [right|left]; exists t; split; assumption.
    - intros [[t [Ht Hx]]|[t [Ht Hx]]].
      + destruct (proj2 (new_tables t) (or_intror Ht)) as [i Hi]. exists t. split; [apply (in_level_concat nv i t Hi)|exact Hx].
      + destruct (proj2 (new_tables t) (or_introl Ht)) as [i Hi]. exists t. split; [apply (in_level_concat nv i t Hi)|exact Hx].
  Qed.

  Lemma old_entries x : In x (LE (concat v)) <-> In x (LE (t0 ++ t1) ++ LE others).
  Proof.
    destruct cm_facts as [El [I0 I1]]. rewrite in_app_iff, LE_app, in_app_iff, !LE_in. split.
    - intros [t [Ht Hx]]. destruct (in_concat_lv v t Ht) as [i Hi].
      destruct (is_input (nums_of (t0 ++ t1)) t) eqn:Q.
      + apply (is_input_iff t i Hi) in Q as [Q|Q]; left; [left|right]; exists t; split; assumption.
      + right. exists t. split; [|exact Hx]. unfold others. apply filter_In. split; [exact Ht|rewrite Q; reflexivity].
    - intros [[[t [Ht Hx]]|[t [Ht Hx]]]|[t [Ht Hx]]]; exists t; (split; [|exact Hx]).
      + apply (in_level_concat v lvl t (I0 t Ht)).
      + apply (in_level_concat v (S lvl) t (I1 t Ht)).
      + unfold others in Ht. apply filter_In in Ht. apply Ht.
  Qed.

  (* a trivial move: the same entries *)
  Lemma move_preserves k s : outs = t0 -> t1 = [] -> answer nv k s = answer v k s.
  Proof.
    intros Eo E1. unfold answer. f_equal. apply (newest_same_elems c ok k s); [apply (uniq_in_version nv Wn)|].
    intros x. rewrite new_entries, old_entries, Eo, E1, app_nil_r. reflexivity.
  Qed.

  (* a rewrite: outputs = the kept merged entries *)
  Lemma build_preserves minSeq k s : (minSeq < keyMaxSeq p)%N -> (minSeq <= s)%N ->
    LE outs = compact_entries c p minSeq (skipn (lvl + 2) v) (t0 ++ t1) -> answer nv k s = answer v k s.
  Proof.
    intros Hm Hs Eo. unfold answer.
    destruct (model_compaction_admissible c ok p pok sz v lvl limit seed W Sk) as [cm' [E' Adm]].
    rewrite En in E'. injection E' as <-.
    specialize (Adm [] minSeq Hm ltac:(intros a b []) ltac:(intros m i x []) k s Hs). cbv zeta in Adm. cbn [app] in Adm.
    fold t0 t1 in Adm. fold others in Adm.
    rewrite (newest_same_elems c ok k s (LE (concat nv)) (LE outs ++ LE others) (uniq_in_version nv Wn) new_entries).
    rewrite (newest_same_elems c ok k s (LE (concat v)) (LE (t0 ++ t1) ++ LE others) (uniq_in_version v W) old_entries).
    rewrite Eo. exact Adm.
  Qed.
End Reads.

Section ReadsLoops.
  Variable c : comparer.
  Hypothesis ok : comparer_ok c.
  Variable p : kparams.
  Hypothesis pok : kparams_ok p.
  Variable sz : table -> N.
  Variable o : copts.
  Variable bld : nat -> list (list table) -> compaction -> list table.
  Variable ms : nat -> N.
  Hypothesis B_ok : bld_ok c p sz o bld ms.
  Hypothesis ms_lt : forall j, (ms j < keyMaxSeq p)%N.

  Notation wf_lsm := (wf_lsm c p).
  Notation answer := (answer c p).

  (* sequence numbers at which no compaction of the run may drop a visible entry: at or above every minSeq *)
  Definition safe_seq (s : N) : Prop := forall j, (ms j <= s)%N.

  Definition same_reads (v v' : list (list table)) : Prop := forall k s, safe_seq s -> answer v' k s = answer v k s.

  Lemma same_reads_refl v : same_reads v v.
  Proof. intros k s _. reflexivity. Qed.

  Lemma same_reads_trans a b d : same_reads a b -> same_reads b d -> same_reads a d.
  Proof. intros H1 H2 k s Hs. rewrite (H2 k s Hs). apply (H1 k s Hs). Qed.

  Lemma table_compaction_reads st lvl seed cm noTrivial st' :
    wf_lsm (cp_v st) -> seed_ok (cp_v st) lvl seed ->
    new_compaction c sz (cp_v st) lvl (o_exp_limit o lvl) seed = POk cm ->
    table_compaction c sz o bld st cm noTrivial = POk st' ->
    wf_lsm (cp_v st') /\ same_reads (cp_v st) (cp_v st').
  Proof.
    intros W Sk En Et.
    destruct (table_compaction_spec c ok p pok sz o bld ms B_ok st lvl seed cm noTrivial W Sk En)
      as [st2 [Et2 [[Wn _] [_ [_ [_ [outs [Ef Ho]]]]]]]].
    rewrite Et in Et2. injection Et2 as <-. split; [exact Wn|]. intros k s Hs.
    destruct Ho as [[_ [T Eo]]|Eo].
    - destruct Sk as [S1 [S2 S3]].
      destruct (trivial_shape sz cm _ T) as [t [E0 E1]].
      apply (move_preserves c ok p sz (cp_v st) W lvl (o_exp_limit o lvl) seed (conj S1 (conj S2 S3)) cm En outs
               (cp_v st') Wn Ef k s Eo E1).
    - destruct (B_ok (cp_n st) (cp_v st) lvl seed cm W Sk En) as [chunks [nums [Eb [[C1 C2] [Hl _]]]]].
      apply (build_preserves c ok p pok sz (cp_v st) W lvl (o_exp_limit o lvl) seed Sk cm En outs (cp_v st') Wn Ef
               (ms (cp_n st)) k s (ms_lt _) (Hs _)).
      rewrite Eo, Eb. unfold LE. rewrite (mk_outputs_entries nums chunks Hl). exact C2.
  Qed.

  Lemma range_levels_reads umin umax : forall n level st log st' log', wf_lsm (cp_v st) ->
    range_levels c sz o bld n level st umin umax log = POk (st', log') ->
    wf_lsm (cp_v st') /\ same_reads (cp_v st) (cp_v st').
  Proof.
    induction n as [|n IH]; intros level st log st' log' W H; cbn [range_levels] in H.
    - injection H as <- _. split; [exact W|apply same_reads_refl].
    - unfold get_compaction_range in H.
      destruct (range_compaction_seed c ok p sz (cp_v st) level umin umax false (o_src_limit o level) (o_exp_limit o level) W)
        as [r [Er Hr]].
      rewrite Er in H. cbn [pbind] in H. destruct r as [cm|]; [|apply (IH _ _ _ _ _ W H)].
      destruct (Hr cm eq_refl) as [seed [Sk En]].
      destruct (table_compaction c sz o bld st cm true) as [st1| |] eqn:Et; cbn [pbind] in H; try discriminate.
      destruct (table_compaction_reads st level seed cm true st1 W Sk En Et) as [W1 R1].
      destruct (IH _ _ _ _ _ W1 H) as [W2 R2]. split; [exact W2|]. apply (same_reads_trans _ _ _ R1 R2).
  Qed.

  Theorem compact_range_reads umin umax : forall fuel st passes st' ps, wf_lsm (cp_v st) ->
    compact_range c p sz o bld fuel st umin umax passes = POk (st', ps) ->
    wf_lsm (cp_v st') /\ same_reads (cp_v st) (cp_v st').
  Proof.
    induction fuel as [|fuel IH]; intros st passes st' ps W H; [discriminate|]. cbn [compact_range] in H.
    unfold range_pass in H.
    destruct (range_levels c sz o bld (range_max_level c p (cp_v st) umin umax) 0 st umin umax []) as [[st1 log]| |] eqn:E1;
      cbn [pbind fst snd] in H; try discriminate.
    destruct (range_levels_reads umin umax _ _ _ _ _ _ W E1) as [W1 R1]. destruct log as [|cm log].
    - injection H as <- _. split; assumption.
    - destruct (IH _ _ _ _ W1 H) as [W2 R2]. split; [exact W2|]. apply (same_reads_trans _ _ _ R1 R2).
  Qed.

  (* the read path itself *)
  Corollary compact_range_get umin umax fuel st st' ps : wf_lsm (cp_v st) ->
    compact_range c p sz o bld fuel st umin umax [] = POk (st', ps) ->
    forall k s, safe_seq s -> api_of (lsm_get c p (lst (cp_v st')) k s) = api_of (lsm_get c p (lst (cp_v st)) k s).
  Proof.
    intros W H k s Hs. destruct (compact_range_reads umin umax fuel st [] st' ps W H) as [W' R].
    rewrite (answer_is_get c ok p pok _ k s W'), (answer_is_get c ok p pok _ k s W). apply (R k s Hs).
  Qed.
  (* the background loop *)
  Lemma auto_step_reads st st' : wf_lsm (cp_v st) -> seek_in st -> need_compaction sz o st = true ->
    auto_step c sz o bld st = POk st' -> wf_lsm (cp_v st') /\ same_reads (cp_v st) (cp_v st') /\ cp_seek st' = None.
  Proof.
    intros W Sk Hn H. unfold auto_step, pick_compaction in H.
    assert (Sk' : seek_ok st (length (cp_v st))).
    { intros l t E. split; [apply (Sk l t E)|]. destruct (Nat.lt_ge_cases l (length (cp_v st))) as [Q|Q]; [exact Q|].
      exfalso. pose proof (Sk l t E) as Hin. unfold lv in Hin. rewrite nth_overflow in Hin by lia. destruct Hin. }
    destruct (pick_seed_spec c sz o st _ Sk' Hn) as [lvl [seed [ty [E [Sok _]]]]]. rewrite E in H. cbn [pbind] in H.
    destruct (new_compaction c sz (cp_v st) lvl (o_exp_limit o lvl) seed) as [cm| |] eqn:En; cbn [pbind] in H; try discriminate.
    destruct (table_compaction_reads st lvl seed cm false st' W Sok En H) as [W' R]. split; [exact W'|]. split; [exact R|].
    destruct (table_compaction_spec c ok p pok sz o bld ms B_ok st lvl seed cm false W Sok En) as [st2 [Et2 [_ [_ [Es _]]]]].
    rewrite H in Et2. injection Et2 as <-. exact Es.
  Qed.

  Theorem auto_loop_reads : forall fuel st st', wf_lsm (cp_v st) -> seek_in st ->
    auto_loop c sz o bld fuel st = POk st' -> wf_lsm (cp_v st') /\ same_reads (cp_v st) (cp_v st').
  Proof.
    induction fuel as [|fuel IH]; intros st st' W Sk H; cbn [auto_loop] in H.
    - destruct (need_compaction sz o st); [discriminate|]. injection H as <-. split; [exact W|apply same_reads_refl].
    - destruct (need_compaction sz o st) eqn:Hn; [|injection H as <-; split; [exact W|apply same_reads_refl]].
      destruct (auto_step c sz o bld st) as [st1| |] eqn:E1; cbn [pbind] in H; try discriminate.
      destruct (auto_step_reads st st1 W Sk Hn E1) as [W1 [R1 S1]].
      destruct (IH st1 st' W1 ltac:(intros l t Q; rewrite S1 in Q; discriminate) H) as [W2 R2].
      split; [exact W2|]. apply (same_reads_trans _ _ _ R1 R2).
  Qed.
End ReadsLoops.

(* what CompactRange leaves behind, in one statement *)
Section Post.
  Variable c : comparer.
  Hypothesis ok : comparer_ok c.
  Variable p : kparams.
  Hypothesis pok : kparams_ok p.
  Variable sz : table -> N.
  Variable o : copts.
  Variable bld : nat -> list (list table) -> compaction -> list table.
  Variable ms : nat -> N.
  Hypothesis B_ok : bld_ok c p sz o bld ms.
  Hypothesis ms_lt : forall j, (ms j < keyMaxSeq p)%N.

  Theorem compact_range_post_full st umin umax fuel st' passes : wf_lsm c p (cp_v st) ->
    compact_range c p sz o bld fuel st umin umax [] = POk (st', passes) ->
    wf_lsm c p (cp_v st') /\
    (let m := range_max_level c p (cp_v st') umin umax in
     (forall l t, l < m -> In t (lv (cp_v st') l) -> t_overlaps c t umin umax = false) /\
     (forall l, m < l -> files_overlaps c p (lv (cp_v st') l) umin umax false = false) /\
     (forall l t, m < l -> (forall u, In u (lv (cp_v st') l) -> (e_seq (t_hi u) <= keyMaxSeq p)%N) ->
        In t (lv (cp_v st') l) -> t_overlaps c t umin umax = false) /\
     last passes (0, []) = (m, [])) /\
    levels_below (cp_v st') (S (range_depth (cp_v st))) /\
    (forall k s, safe_seq ms s -> api_of (lsm_get c p (lst (cp_v st')) k s) = api_of (lsm_get c p (lst (cp_v st)) k s)).
  Proof.
    intros W E.
    destruct (compact_range_post c ok p pok sz o bld ms B_ok st umin umax fuel st' passes W E) as [W' [P Hb]].
    split; [exact W'|]. split; [|split; [exact Hb|apply (compact_range_get c ok p pok sz o bld ms B_ok ms_lt umin umax fuel st st' passes W E)]].
    cbv zeta in *. destruct P as [P1 [P2 P3]]. split; [exact P1|]. split; [exact P2|]. split; [|exact P3].
    intros l t Hl Hseq Ht.
    apply (files_overlaps_sorted c ok p pok sz (lv (cp_v st') l)) with (umin := umin) (umax := umax); try assumption.
    - intros u Hu. apply (wl_tbl c p _ W' l u Hu).
    - apply (wl_deep c p _ W'). lia.
    - apply P2. exact Hl.
  Qed.

  Theorem auto_loop_get fuel st st' : wf_lsm c p (cp_v st) -> seek_in st ->
    auto_loop c sz o bld fuel st = POk st' ->
    forall k s, safe_seq ms s -> api_of (lsm_get c p (lst (cp_v st')) k s) = api_of (lsm_get c p (lst (cp_v st)) k s).
  Proof.
    intros W Sk H k s Hs. destruct (auto_loop_reads c ok p pok sz o bld ms B_ok ms_lt fuel st st' W Sk H) as [W' R].
    rewrite (answer_is_get c ok p pok _ k s W'), (answer_is_get c ok p pok _ k s W). apply (R k s Hs).
  Qed.

  (* the compaction pointer of the source level is the compaction's imax afterwards *)
  Theorem comp_ptr_advances st lvl seed cm noTrivial st' :
    wf_lsm c p (cp_v st) -> seed_ok (cp_v st) lvl seed ->
    new_compaction c sz (cp_v st) lvl (o_exp_limit o lvl) seed = POk cm ->
    table_compaction c sz o bld st cm noTrivial = POk st' ->
    get_ptr (cp_ptrs st') lvl = Some (c_imax cm) /\ forall l, l <> lvl -> get_ptr (cp_ptrs st') l = get_ptr (cp_ptrs st) l.
  Proof.
    intros W Sk En Et.
    destruct (table_compaction_spec c ok p pok sz o bld ms B_ok st lvl seed cm noTrivial W Sk En) as [st2 [Et2 [_ [_ [_ [Ep _]]]]]].
    rewrite Et in Et2. injection Et2 as <-. rewrite Ep. split; [apply get_set_ptr|]. intros l Hl. apply get_set_ptr_other. exact Hl.
  Qed.
End Post.

(* The refutation of unconditional quiescence, for ALL fuel.
   Flat level limits: every level may hold [lim] bytes; a size function under which no live table is lighter than
   that.  From a well-formed version with an empty level 0, no cSeek and a readable key, the background loop never
   stops: reads are preserved by every step, so some table always exists; level 0 stays empty (nothing moves up), so
   that table lives in a level >= 1, whose score is >= 1. *)
Section NeverIdle.
  Variable c : comparer.
  Hypothesis ok : comparer_ok c.
  Variable p : kparams.
  Hypothesis pok : kparams_ok p.
  Variable sz : table -> N.
  Variable o : copts.
  Variable bld : nat -> list (list table) -> compaction -> list table.
  Variable ms : nat -> N.
  Hypothesis B_ok : bld_ok c p sz o bld ms.
  Hypothesis ms_lt : forall j, (ms j < keyMaxSeq p)%N.

  Variable lim : N.
  Hypothesis lim_pos : (0 < lim)%N.
  Hypothesis flat : forall l, o_tot_limit o l = Z.of_N lim.
  Hypothesis heavy : forall t, t_entries t <> [] -> (lim <= sz t)%N.

  Variable k0 : bytes.
  Variable s0 : N.
  Hypothesis s0_safe : safe_seq ms s0.
  Variable val : bytes.

  Definition restless (st : cpstate) : Prop :=
    wf_lsm c p (cp_v st) /\ cp_seek st = None /\ lv (cp_v st) 0 = [] /\ answer c p (cp_v st) k0 s0 = Some val.

  Lemma restless_needs st : restless st -> need_compaction sz o st = true.
  Proof.
    intros [W [_ [L0 A]]]. unfold need_compaction. apply Bool.orb_true_iff. left.
    destruct (compute_compaction_spec sz o (cp_v st)) as [_ D]. cbv zeta in D.
    unfold answer in A. destruct (LE (concat (cp_v st))) as [|x r] eqn:El; [discriminate|].
    assert (Hx : In x (LE (concat (cp_v st)))) by (rewrite El; left; reflexivity).
    apply in_LE_concat in Hx as [i Hi]. apply LE_in in Hi as [t [Ht Hxt]].
    assert (Hi0 : i <> 0) by (intros ->; rewrite L0 in Ht; destruct Ht).
    apply (D i). unfold RangeCompact.level_score. replace (Nat.eqb i 0) with false by (symmetry; apply Nat.eqb_neq; exact Hi0).
    rewrite flat. apply sc_ge1_big; [lia|].
    assert (Hs : (lim <= total_size sz (lv (cp_v st) i))%N).
    { destruct (wl_tbl c p _ W i t Ht) as [_ Hne]. pose proof (heavy t Hne) as Hh.
      clear -Ht Hh. induction (lv (cp_v st) i) as [|u l IH]; [destruct Ht|]. rewrite total_size_cons.
      destruct Ht as [->|Ht]; [lia|specialize (IH Ht); lia]. }
    lia.
  Qed.

  Lemma restless_step st : restless st -> exists st', auto_step c sz o bld st = POk st' /\ restless st'.
  Proof.
    intros R. pose proof (restless_needs st R) as Hn. destruct R as [W [Sn [L0 A]]].
    assert (Sk : seek_in st) by (intros l t E; rewrite Sn in E; discriminate).
    assert (Sk' : seek_ok st 0) by (intros l t E; rewrite Sn in E; discriminate).
    unfold auto_step, pick_compaction.
    destruct (pick_seed_spec c sz o st 0 Sk' Hn) as [lvl [seed [ty [E [Sok _]]]]].
    pose proof Sok as [S1 [S2 S3]].
    destruct (model_pick c ok p sz (cp_v st) W lvl (o_exp_limit o lvl) seed S1 S2 S3) as [cm [En _]].
    destruct (table_compaction_spec c ok p pok sz o bld ms B_ok st lvl seed cm false W Sok En)
      as [st' [Et [[Wn [a [_ [_ [_ Hoth]]]]] [_ [Es _]]]]].
    assert (Est : auto_step c sz o bld st = POk st').
    { unfold auto_step, pick_compaction. rewrite E. cbn [pbind]. rewrite En. cbn [pbind]. exact Et. }
    exists st'. split; [exact Est|].
    destruct (auto_step_reads c ok p pok sz o bld ms B_ok ms_lt st st' W Sk Hn Est) as [_ [Rd _]].
    split; [exact Wn|]. split; [exact Es|]. split.
    - assert (Hl : lvl <> 0).
      { intros ->. destruct seed as [|u r]; [congruence|]. specialize (S2 u (or_introl eq_refl)). rewrite L0 in S2. destruct S2. }
      rewrite (Hoth 0) by lia. exact L0.
    - rewrite (Rd k0 s0 s0_safe). exact A.
  Qed.

  Theorem flat_limits_never_idle : forall fuel st, restless st -> auto_loop c sz o bld fuel st = POutOfFuel.
  Proof.
    induction fuel as [|fuel IH]; intros st R; cbn [auto_loop]; rewrite (restless_needs st R); [reflexivity|].
    destruct (restless_step st R) as [st' [E R']]. rewrite E. cbn [pbind]. apply (IH st' R').
  Qed.
End NeverIdle.
