(* Lsm/IterPathProofs.v — the composition: the DB iterator computed on BYTES (Lsm/IterPath.v:
   newIterator's range conversion, newRawIterator's children - real memdb iterators over the array-encoded
   skip lists, real table iterators over table file bytes, one indexed iterator per deeper level over
   tFiles.newIndexIterator - the merged iterator, dbIter) shows, for every finite sequence of
   First/Last/Seek/Next/Prev, exactly what the reference cursor over the live pairs of the stored entries
   inside [Start, Limit) shows.
   Layers used as lemmas, not re-proved: C14 (Lsm/IterPathChild.v over Mem/MemIter.v), C13
   (table_iter_refines, table_iter_range_refines), C02's own machine theorems (indexed_is_cursor,
   merged_is_cursor, dbiter_refines, live_pairs_slice), C15 (the encoded order ibc is lawful), C06's
   sort.Search lemma.
   The statement against the L1 abstraction, db_iterator_correct_bytes, follows from db_iterator_bytes_gen in
   Lsm/IterPathAbs.v. *)
From GL Require Import Codec.IKeyProofs Codec.TableProofs Codec.TableCheck Lsm.Lsm Lsm.LsmProofs Lsm.ReadPath
  Lsm.ReadPathKey
  Lsm.ReadPathMem Lsm.ReadPathTable Lsm.IterPath Lsm.IterPathChild Lsm.IterPathLevel.
From GL Require Mem.ListLemmas.
From GL Require Import Iter.CursorProofs Iter.CursorBridge Iter.Merged Iter.MergedProofs Iter.DBIter Iter.LiveProofs
  Iter.DBIterProofs Iter.StackProofs Iter.DBIterCong.
From Coq Require Import Lia.


Lemma sorted_kv_ext {K V} (f : K -> K -> comparison) (fok : ord_ok f) : forall l1 l2 : list (K * V),
  sorted_kv f l1 -> sorted_kv f l2 -> (forall x, In x l1 <-> In x l2) -> l1 = l2.
Proof.
  induction l1 as [|x l1 IH]; intros l2 H1 H2 E.
  - destruct l2 as [|y l2]; [reflexivity|]. exfalso. apply (E y). left. reflexivity.
  - destruct l2 as [|y l2]; [exfalso; apply (E x); left; reflexivity|].
    apply StronglySorted_inv in H1 as [S1 A1]. apply StronglySorted_inv in H2 as [S2 A2].
    rewrite Forall_forall in A1, A2.
    assert (Exy : x = y).
    { destruct (proj1 (E x) (or_introl eq_refl)) as [Hy|Hy]; [auto|].
      destruct (proj2 (E y) (or_introl eq_refl)) as [Hx|Hx]; [auto|].
      pose proof (A2 x Hy) as L1. pose proof (A1 y Hx) as L2. unfold kv_lt in L1, L2.
      exfalso. exact (f_lt_asym f fok _ _ L1 L2). }
    subst y. f_equal. apply IH; [exact S1|exact S2|].
    intros z. split; intros Hz.
    + destruct (proj1 (E z) (or_intror Hz)) as [->|Hz']; [|exact Hz'].
      exfalso. exact (f_lt_irrefl f fok _ (A1 z Hz)).
    + destruct (proj2 (E z) (or_intror Hz)) as [->|Hz']; [|exact Hz'].
      exfalso. exact (f_lt_irrefl f fok _ (A2 z Hz)).
Qed.

Lemma filter_length_le' {A} (g : A -> bool) (l : list A) : length (filter g l) <= length l.
Proof. induction l as [|x l IH]; [cbn; lia|]. cbn [filter]. destruct (g x); cbn [length]; lia. Qed.


Lemma sorted_filter_gen {K V} (f : K -> K -> comparison) (g : K * V -> bool) (l : list (K * V)) :
  sorted_kv f l -> sorted_kv f (filter g l).
Proof.
  induction l as [|x l IH]; intros H; [constructor|].
  apply StronglySorted_inv in H as [Hs Hall]. cbn [filter].
  destruct (g x); [|apply IH; exact Hs].
  constructor; [apply IH; exact Hs|].
  rewrite Forall_forall in *. intros y Hy. apply filter_In in Hy as [Hy _]. apply Hall. exact Hy.
Qed.

(* filtering commutes with merging *)
Lemma merge_filter {K V} (f : K -> K -> comparison) (fok : ord_ok f) (g : K * V -> bool) (ls : list (list (K * V))) :
  NoDup (map fst (concat ls)) ->
  merge_lists f (map (filter g) ls) = filter g (merge_lists f ls).
Proof.
  intros Hnd. apply (sorted_kv_ext f fok).
  - apply (merge_sorted K V f fok). rewrite concat_filter_map. apply ListLemmas.NoDup_map_filter. exact Hnd.
  - apply sorted_filter_gen. apply (merge_sorted K V f fok). exact Hnd.
  - intros x. unfold merge_lists. rewrite (fold_insert_in K V f), concat_filter_map, !filter_In, (fold_insert_in K V f).
    reflexivity.
Qed.

Section Compose.
  Variable c : comparer.
  Hypothesis ok : comparer_ok c.
  Variable p : kparams.
  Hypothesis dpok : dbparams_ok p.
  Variable mp : MemDB.mparams.
  Hypothesis mpok : MemDB.mparams_ok mp.
  Variable tp : tparams.
  Variable crc : bytes -> N.
  Variable decompress : bytes -> option bytes.
  Variable fname : option bytes.
  Variable ufc : bytes -> N -> bytes -> bool.
  Variable verify : bool.
  Variable ri : N.
  Variable strict : bool.

  Local Notation ic := (ibc c).
  Local Notation icok := (ibc_ok c ok).
  Local Notation fok := (cmp_ord_ok ic icok).
  Local Notation okb := (tfile_okb c p tp crc decompress fname ufc verify ri).
  Local Notation pairs := (tf_pairs c tp crc decompress fname ufc verify ri).
  Local Notation atab := (abs_table c tp crc decompress fname ufc verify ri).
  Local Notation tnew := (tc_new c tp crc decompress fname ufc verify strict).
  Local Notation fileok := (file_ok c tp crc decompress fname ufc verify strict pairs).
  Local Notation levelok := (level_ok c tp crc decompress fname ufc verify strict pairs).
  Local Notation bstep := (bc_step c mp tp crc decompress fname ufc verify strict).

  Lemma pok : kparams_ok p. Proof. exact (proj1 dpok). Qed.
  Lemma seek_val : (keyTypeSeek p <= keyTypeVal p)%N. Proof. exact (proj1 (proj2 dpok)). Qed.

  Lemma okb_file_ok f : okb f = true -> fileok f.
  Proof.
    intros Hf. destruct (okb_facts c p tp crc decompress fname ufc verify ri f Hf) as (bl & se & hs & F).
    pose proof (tff_wf _ _ _ _ _ _ _ _ _ _ _ _ _ F) as W.
    pose proof (tff_pairs _ _ _ _ _ _ _ _ _ _ _ _ _ F) as Ep.
    constructor.
    - rewrite Ep. exact (tff_bounds _ _ _ _ _ _ _ _ _ _ _ _ _ F).
    - rewrite Ep. apply (sorted_base_kv ic icok). exact (twf_sorted _ _ _ _ _ W).
    - intros sl. rewrite Ep. apply (tab_child_refines c ok tp crc decompress fname ufc verify strict f bl se hs sl W).
  Qed.

  Lemma okb_keys f x : okb f = true -> In x (pairs f) -> key_okb p (fst x) = true.
  Proof.
    intros Hf Hx. destruct (okb_facts c p tp crc decompress fname ufc verify ri f Hf) as (bl & se & hs & F).
    pose proof (tff_keys _ _ _ _ _ _ _ _ _ _ _ _ _ F) as Hk. rewrite <- (tff_pairs _ _ _ _ _ _ _ _ _ _ _ _ _ F) in Hk.
    unfold keys_ok in Hk. rewrite Forall_forall in Hk. apply Hk. exact Hx.
  Qed.

  Lemma level_ok_of ts : Forall (fun f => okb f = true) ts -> level_sorted c (map atab ts) -> levelok ts.
  Proof.
    intros Hok Hls. split.
    - eapply Forall_impl; [|exact Hok]. intros f Hf. apply okb_file_ok. exact Hf.
    - induction ts as [|f ts IH]; [constructor|]. inversion Hok as [|? ? Hf Hok']; subst.
      cbn [map level_sorted] in Hls. destruct Hls as [Hsep Hls]. constructor; [apply IH; assumption|].
      rewrite Forall_forall. intros g Hg x y Hx Hy. rewrite Forall_forall in Hsep, Hok'.
      destruct (key_okb_dec p _ (okb_keys f x Hf Hx)) as (kx & Dx & _).
      destruct (key_okb_dec p _ (okb_keys g y (Hok' g Hg) Hy)) as (ky & Dy & _).
      rewrite (ibc_dec c _ _ _ _ Dx Dy). apply (icmp_ukey_lt c).
      specialize (Hsep (atab g) (in_map atab _ _ Hg) (entry_of x) (entry_of y)).
      rewrite (entry_of_dec x kx Dx), (entry_of_dec y ky Dy) in Hsep. cbn [e_uk] in Hsep.
      apply Hsep; unfold abs_table; cbn [t_entries]; [rewrite <- (entry_of_dec x kx Dx)|rewrite <- (entry_of_dec y ky Dy)];
        apply in_map; assumption.
  Qed.

  Definition opt_list {A} (o : option A) : list A := match o with Some a => [a] | None => [] end.

  Definition level_list (ts : list tfile) : list (list (bytes * bytes)) :=
    match ts with [] => [] | _ => [lv_pairs pairs ts] end.

  Definition table_lists (lvls : list (list tfile)) : list (list (bytes * bytes)) :=
    match lvls with
    | [] => []
    | l0 :: rest => map pairs l0 ++ flat_map level_list rest
    end.

  (* the pair lists of the children, in the order of newRawIterator *)
  Definition child_lists (auxm : option MemDB.db) (auxt : list tfile) (st : bstate) : list (list (bytes * bytes)) :=
    map (mem_pairs mp) (opt_list auxm) ++ map pairs auxt ++
    map (mem_pairs mp) (opt_list (bs_mem st)) ++ map (mem_pairs mp) (opt_list (bs_frozen st)) ++
    table_lists (bs_levels st).

  Record iter_wf (auxm : option MemDB.db) (auxt : list tfile) (st : bstate) : Prop := {
    iw_auxm : forall d, auxm = Some d -> mem_ok c p mp d;
    iw_mem : forall d, bs_mem st = Some d -> mem_ok c p mp d;
    iw_open : bs_mem st <> None;
    iw_frozen : forall d, bs_frozen st = Some d -> mem_ok c p mp d;
    iw_auxt : Forall (fun f => okb f = true) auxt;
    iw_tables : Forall (Forall (fun f => okb f = true)) (bs_levels st);
    iw_deep : Forall (fun ts => level_sorted c (map atab ts)) (tl (bs_levels st));
    iw_uniq : NoDup (map fst (concat (child_lists auxm auxt st)))      (* no internal key is stored twice *)
  }.

  Local Notation crefines := (refines (cmp ic) bstep bc_obs).

  (* a child under a constructor of bchild that bstep and bc_obs look through refines what the child refines *)
  Lemma refines_embed {X} (C : X -> bchild) (stepX : X -> move bytes -> X) (obsX : X -> option (bytes * bytes)) x l :
    (forall y m, bstep (C y) m = C (stepX y m)) -> (forall y, bc_obs (C y) = obsX y) ->
    refines (cmp ic) stepX obsX x l -> crefines (C x) l.
  Proof.
    intros Hs Ho R ms. rewrite <- (R ms), <- Ho. f_equal. clear R. revert x.
    induction ms as [|m ms IH]; intros x; [reflexivity|]. cbn [bb_run fold_left]. rewrite Hs. apply IH.
  Qed.

  Lemma mem_children d sl : mem_ok c p mp d ->
    Forall2 crefines [BMem (mc_new d sl)] [sl_pairs ic sl (mem_pairs mp d)].
  Proof.
    intros H. constructor; [|constructor].
    apply (refines_embed BMem (mc_step c mp) mc_obs); [reflexivity|reflexivity|].
    exact (mem_child_refines c ok p seek_val mp mpok d sl H).
  Qed.

  Lemma opt_mem_children o sl : (forall d, o = Some d -> mem_ok c p mp d) ->
    Forall2 crefines (match o with Some a => [BMem (mc_new a sl)] | None => [] end)
                     (map (sl_pairs ic sl) (map (mem_pairs mp) (opt_list o))).
  Proof. intros H. destruct o as [d|]; [apply mem_children; apply H; reflexivity|constructor]. Qed.

  Lemma tab_children ts sl : Forall (fun f => okb f = true) ts ->
    Forall2 crefines (map (fun t => BTab (tnew t sl)) ts) (map (sl_pairs ic sl) (map pairs ts)).
  Proof.
    induction ts as [|f ts IH]; intros H; [constructor|]. inversion H as [|? ? Hf H']; subst.
    cbn [map]. constructor; [|apply IH; exact H'].
    apply (refines_embed BTab (tc_step c) tc_obs); [reflexivity|reflexivity|].
    exact (fo_iter _ _ _ _ _ _ _ _ _ _ (okb_file_ok f Hf) sl).
  Qed.

  Lemma level_children ts sl : Forall (fun f => okb f = true) ts -> level_sorted c (map atab ts) ->
    Forall2 crefines (level_child c ts sl) (map (sl_pairs ic sl) (level_list ts)).
  Proof.
    intros Hok Hls. destruct ts as [|f ts]; [constructor|].
    unfold level_child, level_list. cbn [map]. constructor; [|constructor].
    set (fuel := S (S (length (f :: ts)))).
    apply (refines_embed (BLevel fuel) (lv_step c tp crc decompress fname ufc verify strict fuel) lv_obs); [reflexivity|reflexivity|].
    exact (level_refines c ok tp crc decompress fname ufc verify strict pairs (f :: ts) sl fuel (level_ok_of _ Hok Hls) ltac:(subst fuel; lia)).
  Qed.

  Lemma deep_children rest sl : Forall (Forall (fun f => okb f = true)) rest ->
    Forall (fun ts => level_sorted c (map atab ts)) rest ->
    Forall2 crefines (flat_map (fun ts => level_child c ts sl) rest) (map (sl_pairs ic sl) (flat_map level_list rest)).
  Proof.
    induction rest as [|ts rest IH]; intros H1 H2; [constructor|].
    inversion H1 as [|? ? Hts H1']; subst. inversion H2 as [|? ? Hls H2']; subst.
    cbn [flat_map]. rewrite map_app. apply Forall2_app; [apply level_children; assumption|apply IH; assumption].
  Qed.

  Lemma table_children lvls sl : Forall (Forall (fun f => okb f = true)) lvls ->
    Forall (fun ts => level_sorted c (map atab ts)) (tl lvls) ->
    Forall2 crefines (table_iterators c tp crc decompress fname ufc verify strict lvls sl)
                     (map (sl_pairs ic sl) (table_lists lvls)).
  Proof.
    intros H1 H2. destruct lvls as [|l0 rest]; [constructor|].
    inversion H1 as [|? ? H0 H1']; subst. cbn [tl] in H2.
    unfold table_iterators, table_lists. rewrite map_app.
    apply Forall2_app; [apply tab_children; exact H0|apply deep_children; assumption].
  Qed.

  Lemma raw_children_refine auxm auxt st sl : iter_wf auxm auxt st ->
    exists its, raw_children c tp crc decompress fname ufc verify strict auxm auxt st sl = Some its /\
                Forall2 crefines its (map (sl_pairs ic sl) (child_lists auxm auxt st)).
  Proof.
    intros [Ha Hm Ho Hf Hat Ht Hd _]. unfold raw_children.
    destruct (bs_mem st) as [em|] eqn:Em; [|congruence].
    eexists. split; [reflexivity|]. unfold child_lists. rewrite Em. rewrite !map_app.
    apply Forall2_app; [apply opt_mem_children; exact Ha|].
    apply Forall2_app; [apply tab_children; exact Hat|].
    apply Forall2_app; [apply (mem_children em sl); apply Hm; reflexivity|].
    apply Forall2_app; [apply opt_mem_children; exact Hf|].
    apply table_children; assumption.
  Qed.

  (* the lists are sorted and hold stored keys only *)
  Definition keys_okl (l : list (bytes * bytes)) : Prop := Forall (fun x => key_okb p (fst x) = true) l.

  Lemma mem_list_ok d : mem_ok c p mp d -> sorted_kv (cmp ic) (mem_pairs mp d) /\ keys_okl (mem_pairs mp d).
  Proof.
    intros M. split; [|exact (mem_ok_keys c p mp d M)].
    apply (sorted_base_kv ic icok). exact (mem_ok_pairs_sorted c p seek_val mp mpok d M).
  Qed.

  Lemma opt_mem_lists_ok o : (forall d, o = Some d -> mem_ok c p mp d) ->
    Forall (fun l => sorted_kv (cmp ic) l /\ keys_okl l) (map (mem_pairs mp) (opt_list o)).
  Proof. intros H. destruct o as [d|]; [constructor; [apply mem_list_ok; apply H; reflexivity|constructor]|constructor]. Qed.

  Lemma tab_lists_ok ts : Forall (fun f => okb f = true) ts ->
    Forall (fun l => sorted_kv (cmp ic) l /\ keys_okl l) (map pairs ts).
  Proof.
    intros H. apply Forall_map. eapply Forall_impl; [|exact H]. intros f Hf. split.
    - apply (fo_sorted _ _ _ _ _ _ _ _ _ _ (okb_file_ok f Hf)).
    - apply Forall_forall. intros x Hx. apply (okb_keys f x Hf Hx).
  Qed.

  Lemma level_list_ok ts : Forall (fun f => okb f = true) ts -> level_sorted c (map atab ts) ->
    Forall (fun l => sorted_kv (cmp ic) l /\ keys_okl l) (level_list ts).
  Proof.
    intros Hok Hls. destruct ts as [|f ts]; [constructor|]. unfold level_list. constructor; [|constructor]. split.
    - eapply lv_pairs_sorted. apply level_ok_of; assumption.
    - apply Forall_forall. intros x Hx. unfold lv_pairs in Hx. apply in_concat in Hx as (l & Hl & Hx).
      apply in_map_iff in Hl as (g & <- & Hg). rewrite Forall_forall in Hok. apply (okb_keys g x (Hok g Hg) Hx).
  Qed.

  Lemma child_lists_ok auxm auxt st : iter_wf auxm auxt st ->
    Forall (fun l => sorted_kv (cmp ic) l /\ keys_okl l) (child_lists auxm auxt st).
  Proof.
    intros [Ha Hm Ho Hf Hat Ht Hd _]. unfold child_lists.
    apply Forall_app. split; [apply opt_mem_lists_ok; exact Ha|].
    apply Forall_app. split; [apply tab_lists_ok; exact Hat|].
    apply Forall_app. split; [apply opt_mem_lists_ok; exact Hm|].
    apply Forall_app. split; [apply opt_mem_lists_ok; exact Hf|].
    unfold table_lists. destruct (bs_levels st) as [|l0 rest]; [constructor|].
    inversion Ht as [|? ? H0 Ht']; subst. cbn [tl] in Hd.
    apply Forall_app. split; [apply tab_lists_ok; exact H0|].
    clear H0 Ht. induction rest as [|ts rest IH]; [constructor|].
    inversion Ht' as [|? ? Hts Ht'']; subst. inversion Hd as [|? ? Hls Hd']; subst.
    cbn [flat_map]. apply Forall_app. split; [apply level_list_ok; assumption|apply IH; assumption].
  Qed.

  (* the stored entries: all pairs merged in the encoded order, then parsed *)
  Definition all_pairs (auxm : option MemDB.db) (auxt : list tfile) (st : bstate) : list (bytes * bytes) :=
    merge_lists (cmp ic) (child_lists auxm auxt st).

  (* THE LIST the DB iterator is judged against is live_pairs of this one *)
  Definition db_entries (auxm : option MemDB.db) (auxt : list tfile) (st : bstate) : list DBIter.entry :=
    map dec_entry (all_pairs auxm auxt st).

  Lemma all_pairs_in auxm auxt st x : In x (all_pairs auxm auxt st) <-> In x (concat (child_lists auxm auxt st)).
  Proof. unfold all_pairs, merge_lists. apply (fold_insert_in bytes bytes (cmp ic)). Qed.

  Lemma all_pairs_keys auxm auxt st : iter_wf auxm auxt st -> keys_okl (all_pairs auxm auxt st).
  Proof.
    intros W. apply Forall_forall. intros x Hx. apply all_pairs_in in Hx. apply in_concat in Hx as (l & Hl & Hx).
    pose proof (child_lists_ok _ _ _ W) as H. rewrite Forall_forall in H. destruct (H l Hl) as [_ Hk].
    unfold keys_okl in Hk. rewrite Forall_forall in Hk. apply Hk. exact Hx.
  Qed.

  Lemma all_pairs_sorted auxm auxt st : iter_wf auxm auxt st -> sorted_kv (cmp ic) (all_pairs auxm auxt st).
  Proof. intros W. apply (merge_sorted bytes bytes (cmp ic) fok). exact (iw_uniq _ _ _ W). Qed.

  (* the boundary between encoded and parsed keys *)
  Definition enc_ok (k : ikey) : Prop := ik_dec (encode_ikey k) = Some k.

  Lemma dec_entry_key x : key_okb p (fst x) = true -> ik_dec (fst x) = Some (fst (dec_entry x)).
  Proof. intros H. destruct (key_okb_dec p _ H) as (k & D & _). unfold dec_entry. rewrite D. reflexivity. Qed.

  Lemma dec_cmp x y : key_okb p (fst x) = true -> key_okb p (fst y) = true ->
    cmp ic (fst x) (fst y) = icmp c (fst (dec_entry x)) (fst (dec_entry y)).
  Proof. intros Hx Hy. apply (ibc_dec c); apply dec_entry_key; assumption. Qed.

  Lemma dec_sorted l : keys_okl l -> sorted_kv (cmp ic) l -> sorted_kv (icmp c) (map dec_entry l).
  Proof.
    induction l as [|x l IH]; intros Hk Hs; [constructor|]. inversion Hk as [|? ? Hx Hk']; subst.
    apply StronglySorted_inv in Hs as [Hs Hall]. cbn [map]. constructor; [apply IH; assumption|].
    apply Forall_map. unfold keys_okl in Hk'. rewrite Forall_forall in *. intros y Hy. unfold kv_lt.
    rewrite <- (dec_cmp x y Hx (Hk' y Hy)). apply Hall. exact Hy.
  Qed.

  Lemma dec_wf l : keys_okl l -> Forall (entry_wf p) (map dec_entry l).
  Proof.
    intros Hk. apply Forall_map. eapply Forall_impl; [|exact Hk]. intros x Hx.
    destruct (key_okb_dec p _ Hx) as (k & D & K). unfold entry_wf, dec_entry. rewrite D. exact K.
  Qed.

  Lemma find_ge_dec k l : keys_okl l -> enc_ok k -> forall i,
    find_ge (cmp ic) (encode_ikey k) l i = find_ge (icmp c) k (map dec_entry l) i.
  Proof.
    intros Hk Ek. induction l as [|x l IH]; intros i; [reflexivity|]. inversion Hk as [|? ? Hx Hk']; subst.
    cbn [find_ge map]. rewrite (ibc_dec c _ _ _ _ (dec_entry_key x Hx) Ek).
    destruct (icmp c (fst (dec_entry x)) k); try reflexivity. apply IH. exact Hk'.
  Qed.

  Lemma cstep_dec l q m : keys_okl l -> move_in enc_ok m ->
    cstep (cmp ic) l q (enc_move m) = cstep (icmp c) (map dec_entry l) q m.
  Proof.
    intros Hk Hm. destruct m as [| |k| |]; cbn [enc_move cstep].
    - destruct l; reflexivity.
    - unfold clast. rewrite map_length. reflexivity.
    - apply find_ge_dec; assumption.
    - destruct q; [destruct l; reflexivity|rewrite map_length; reflexivity|reflexivity].
    - destruct q; try reflexivity. unfold clast. rewrite map_length. reflexivity.
  Qed.

  Lemma crun_dec l ms : keys_okl l -> Forall (move_in enc_ok) ms -> forall q,
    crun (cmp ic) l q (map enc_move ms) = crun (icmp c) (map dec_entry l) q ms.
  Proof.
    intros Hk. induction ms as [|m ms IH]; intros Hms q; [reflexivity|]. inversion Hms as [|? ? Hm Hms']; subst.
    cbn [map crun fold_left]. rewrite (cstep_dec l q m Hk Hm). apply IH. exact Hms'.
  Qed.

  Lemma cobs_dec (l : list (bytes * bytes)) q : cobs (map dec_entry l) q = option_map dec_entry (cobs l q).
  Proof. destruct q; cbn [cobs]; try reflexivity. apply nth_error_map. Qed.

  Local Notation rstep := (raw_step c mp tp crc decompress fname ufc verify strict).
  Local Notation rbstep := (rawb_step c mp tp crc decompress fname ufc verify strict).

  Lemma raw_run x ms : bb_run rstep x ms = bb_run rbstep x (map enc_move ms).
  Proof. revert x. induction ms as [|m ms IH]; intros x; [reflexivity|]. cbn [bb_run fold_left map]. apply IH. Qed.

  (* a raw iterator that is a cursor over encoded pairs is, seen through the boundary, the cursor over the
     parsed pairs - for every call sequence whose Seek keys survive encoding *)
  Lemma boundary_sim x l : keys_okl l -> refines (cmp ic) rbstep rawb_obs x l ->
    sim _ _ rstep raw_obs (cur_step (icmp c)) cur_obs enc_ok x (map dec_entry l, SOI).
  Proof.
    intros Hk R ms Hms. unfold raw_obs. rewrite raw_run, (R (map enc_move ms)).
    rewrite (crun_dec l ms Hk Hms SOI), <- cobs_dec.
    symmetry. apply (cursor_refines_itself (icmp c) (map dec_entry l) SOI ms).
  Qed.

  Lemma opt_probe_some o : opt_probe p o = Some (option_map (fun k => probe p k (keyMaxSeq p)) o).
  Proof. destruct o as [k|]; [|reflexivity]. unfold opt_probe. rewrite (probe_ok p dpok k). reflexivity. Qed.

  Lemma num_bound x : key_okb p (fst x) = true -> (num (fst (dec_entry x)) <= keyMaxNum p)%N.
  Proof.
    intros H. destruct (key_okb_dec p _ H) as (k & D & K). unfold dec_entry. rewrite D. cbn [fst].
    pose proof (ik_dec_num_bound _ _ D) as B. destruct pok as (H1 & H2 & _ & _ & Hmax & Hnum).
    rewrite Hnum, (N.div_mod (num k) 256) by discriminate. apply N.add_le_mono.
    - rewrite N.mul_comm. apply N.mul_le_mono_r.
      assert (Hq : (num k / 256 < 2 ^ 56)%N) by (apply N.div_lt_upper_bound; [discriminate|exact B]).
      rewrite Hmax. lia.
    - fold (ik_kind k). destruct K as [-> | ->]; assumption.
  Qed.

  (* slicing by the encoded probes = slicing the parsed entries by the parsed probes *)
  Lemma dec_restrict a b l : keys_okl l ->
    (forall k, a = Some k -> wf_bytes k) -> (forall k, b = Some k -> wf_bytes k) ->
    map dec_entry (Base.Cursor.restrict ic
                     (option_map encode_ikey (option_map (fun k => probe p k (keyMaxSeq p)) a))
                     (option_map encode_ikey (option_map (fun k => probe p k (keyMaxSeq p)) b)) l) =
    slice_entries c (option_map (fun k => probe p k (keyMaxSeq p)) a)
                    (option_map (fun k => probe p k (keyMaxSeq p)) b) (map dec_entry l).
  Proof.
    intros Hk Wa Wb. unfold Base.Cursor.restrict, slice_entries.
    induction l as [|x l IH]; [reflexivity|]. inversion Hk as [|? ? Hx Hk']; subst.
    cbn [filter map].
    assert (E : Base.Cursor.in_range ic
                  (option_map encode_ikey (option_map (fun k => probe p k (keyMaxSeq p)) a))
                  (option_map encode_ikey (option_map (fun k => probe p k (keyMaxSeq p)) b)) x =
                in_islice c (option_map (fun k => probe p k (keyMaxSeq p)) a)
                            (option_map (fun k => probe p k (keyMaxSeq p)) b) (dec_entry x)).
    { unfold Base.Cursor.in_range, in_islice. f_equal.
      - destruct a as [k|]; [|reflexivity]. cbn [option_map]. unfold Order.leb.
        rewrite (cmp_opp ic icok).
        rewrite (ibc_dec c _ _ _ _ (dec_entry_key x Hx) (probe_dec p pok k _ (Wa k eq_refl) (N.le_refl _))).
        destruct (icmp c (fst (dec_entry x)) (probe p k (keyMaxSeq p))); reflexivity.
      - destruct b as [k|]; [|reflexivity]. cbn [option_map]. unfold Order.ltb.
        rewrite (ibc_dec c _ _ _ _ (dec_entry_key x Hx) (probe_dec p pok k _ (Wb k eq_refl) (N.le_refl _))).
        reflexivity. }
    rewrite E. destruct (in_islice c _ _ (dec_entry x)); cbn [map]; [f_equal|]; apply IH; exact Hk'.
  Qed.

  Lemma sl_pairs_keys sl l : keys_okl l -> keys_okl (sl_pairs ic sl l).
  Proof.
    intros H. unfold keys_okl in *. rewrite Forall_forall in *. intros x Hx. apply H. eapply sl_pairs_incl; eauto.
  Qed.

  Lemma sl_map_some ia ib (ls : list (list (bytes * bytes))) :
    map (sl_pairs ic (Some (ia, ib))) ls = map (filter (Base.Cursor.in_range ic ia ib)) ls.
  Proof. apply map_ext. reflexivity. Qed.
  Lemma sl_map_none (ls : list (list (bytes * bytes))) : map (sl_pairs ic None) ls = ls.
  Proof. rewrite <- (map_id ls) at 2. apply map_ext. reflexivity. Qed.

  Local Notation DBRUN := (dbi_run c p mp tp crc decompress fname ufc verify strict).

  (* any iterator of the DB - DB.NewIterator / Snapshot.NewIterator (auxm = None, auxt = []) or
     Transaction.NewIterator (auxm, auxt = the transaction's memdb and tables) - over real children *)
  Theorem db_iterator_bytes_gen auxm auxt st seq slice fuel ms :
    iter_wf auxm auxt st -> (seq <= keyMaxSeq p)%N -> range_wf slice -> Forall umove_wf ms ->
    length (concat (child_lists auxm auxt st)) < fuel ->
    DBRUN fuel auxm auxt st seq slice ms =
    Some (run_cursor (cmp c) (range_view c slice (live_pairs c p seq (db_entries auxm auxt st))) ms).
  Proof.
    intros W Hseq Hrw Hms Hfuel.
    set (lists := child_lists auxm auxt st).
    set (pa := fun k => probe p k (keyMaxSeq p)).
    (* the internal slice *)
    set (isl := match slice with
                | None => None
                | Some (a, b) => Some (option_map encode_ikey (option_map pa a), option_map encode_ikey (option_map pa b))
                end : option krange).
    assert (Eisl : islice_of p slice = Some isl).
    { unfold islice_of, isl. destruct slice as [[a b]|]; [|reflexivity]. rewrite !opt_probe_some. reflexivity. }
    destruct (raw_children_refine auxm auxt st isl W) as (its & Eits & Href).
    unfold dbi_run, new_iterator. rewrite Eisl, Eits. cbv beta iota.
    (* the merged iterator over the real children *)
    pose proof (child_lists_ok _ _ _ W) as Hlists. fold lists in Hlists, Href.
    set (LS := merge_lists (cmp ic) (map (sl_pairs ic isl) lists)).
    assert (Hnd : NoDup (map fst (concat (map (sl_pairs ic isl) lists)))).
    { destruct isl as [[ia ib]|].
      - rewrite sl_map_some, concat_filter_map. apply ListLemmas.NoDup_map_filter. exact (iw_uniq _ _ _ W).
      - rewrite sl_map_none. exact (iw_uniq _ _ _ W). }
    assert (Hmerged : refines (cmp ic) (rawb_step c mp tp crc decompress fname ufc verify strict) rawb_obs (m_init its) LS).
    { apply (merged_is_cursor bytes bytes bchild (cmp ic) bstep bc_obs (raw_pop c) (map (sl_pairs ic isl) lists) its fok).
      - apply (pop_scan_ok bytes (cmp ic) fok).
      - apply Forall_map. eapply Forall_impl; [|exact Hlists]. intros l [Hs _]. apply (sl_pairs_sorted ic). exact Hs.
      - exact Hnd.
      - exact Href. }
    assert (ELS : LS = sl_pairs ic isl (all_pairs auxm auxt st)).
    { unfold LS, all_pairs. fold lists. destruct isl as [[ia ib]|].
      - rewrite sl_map_some. cbn [sl_pairs]. unfold Base.Cursor.restrict. apply (merge_filter (cmp ic) fok). exact (iw_uniq _ _ _ W).
      - rewrite sl_map_none. reflexivity. }
    assert (HkLS : keys_okl LS) by (rewrite ELS; apply sl_pairs_keys; apply all_pairs_keys; exact W).
    assert (HsLS : sorted_kv (cmp ic) LS) by (rewrite ELS; apply (sl_pairs_sorted ic); apply all_pairs_sorted; exact W).
    (* through the boundary dbIter sees the cursor over the parsed entries *)
    etransitivity.
    { apply (db_run_cong_init c p _ _ _ raw_obs (cur_step (icmp c)) cur_obs seq strict enc_ok fuel
               (m_init its) (map dec_entry LS, SOI) ms (boundary_sim _ _ HkLS Hmerged)).
      eapply Forall_impl; [|exact Hms]. intros m Hm. destruct m as [| |k| |]; try exact I. cbn [umove_in umove_wf] in *.
      unfold key_in. rewrite (make_ikey_probe p k seq Hseq seek_val). apply (probe_dec p pok k seq Hm Hseq). }
    rewrite (dbiter_refines c p _ (cur_step (icmp c)) cur_obs seq strict (map dec_entry LS) fuel (map dec_entry LS, SOI)
               ok dpok Hseq (dec_sorted LS HkLS HsLS) (dec_wf LS HkLS)).
    - (* the list *)
      f_equal. f_equal. rewrite ELS. unfold db_entries, range_view.
      destruct slice as [[a b]|]; unfold isl, pa; cbn [sl_pairs]; [|reflexivity].
      destruct Hrw as [Wa Wb].
      rewrite (dec_restrict a b _ (all_pairs_keys _ _ _ W) Wa Wb).
      apply (live_pairs_slice c ok p dpok seq (map dec_entry (all_pairs auxm auxt st)) a b).
      + apply dec_sorted; [apply all_pairs_keys|apply all_pairs_sorted]; exact W.
      + apply Forall_map. eapply Forall_impl; [|exact (all_pairs_keys _ _ _ W)]. intros x Hx. apply num_bound. exact Hx.
      + apply opt_probe_some.
      + apply opt_probe_some.
    - rewrite map_length, ELS.
      assert (Hle : length (sl_pairs ic isl (all_pairs auxm auxt st)) <= length (all_pairs auxm auxt st)).
      { destruct isl as [[ia ib]|]; cbn [sl_pairs]; [apply filter_length_le'|lia]. }
      unfold all_pairs in *. rewrite (merge_length (cmp ic)) in Hle. subst lists. lia.
    - apply cursor_refines_itself.
  Qed.
End Compose.
