(* Lsm/WritePathMem.v — the memdb side of the byte-level write path:
   - draining a memdb through its iterator (mdb.NewIterator(nil); for it.Next() {...}: Lsm/WritePath.v mem_iter_all,
     built from Mem/MemDB.v it_next) yields exactly the pairs of its level-0 chain (Lsm/ReadPath.v mem_pairs) — by
     C14's iterator refinement (Mem/MemIter.v it_next_ok) against the cursor of the reference map;
   - memdb.New gives a memdb that satisfies C14's invariant and holds no pair. *)
From GL Require Import Lsm.Lsm Lsm.ReadPath Lsm.ReadPathKey Lsm.ReadPathMem Lsm.WritePath Lsm.IterPathChild.
From GL Require Mem.ListLemmas.
From GL Require Import Mem.MemSpec Mem.MemInv Mem.MemOps Mem.MemIter.
From Coq Require Import Lia.
Open Scope N_scope.

Section Drain.
  Variable uc : comparer.              (* the user comparer; the memdb is ordered by the iComparer over it *)
  Hypothesis uok : comparer_ok uc.
  Local Notation c := (ibc uc).
  Variable mp : mparams.
  Hypothesis mpok : mparams_ok mp.

  Lemma vis_none (m : smap) : vis c None m = m.
  Proof. unfold vis. induction m as [|x m IH]; [reflexivity|]. change (x :: filter (fun kv => in_range c None (fst kv)) m = x :: m). f_equal. exact IH. Qed.

  (* where the reference cursor stands after j pairs were yielded *)
  Definition yielded (j : nat) : Iter.Cursor.pos := match j with O => Iter.Cursor.SOI | S i => Iter.Cursor.At i end.

  Lemma next_yielded (l : smap) j :
    Iter.Cursor.cstep (cmp c) l (yielded j) Iter.Cursor.MNext = if Nat.ltb j (length l) then yielded (S j) else Iter.Cursor.EOI.
  Proof. destruct j as [|i]; [destruct l; reflexivity|reflexivity]. Qed.

  Section WithInv.
    Variables (d : db) (A L : list N).
    Hypothesis I : Inv c (tMaxHeight mp) d A L.
    Local Notation m := (abs d L).

    (* the loop "for it.Next()": each Next is the step of the reference cursor (IterPathChild.next_at) *)
    Lemma drain_ok : forall n fuel it cu j, Rit c d L it cu -> cu_at uc d L None cu (yielded j) ->
      (j + n = length m)%nat -> (n < fuel)%nat -> mem_drain uc mp fuel d it = Ok (skipn j m).
    Proof.
      induction n as [|n IH]; intros fuel it cu j R Hat Hj Hf; (destruct fuel as [|fuel]; [lia|]); cbn [mem_drain].
      - destruct (next_at uc uok mp d A L I None cu _ Hat) as (cu' & En & (_ & _ & Hcur)).
        destruct (it_next_ok c (ibc_ok uc uok) mp mpok d A L I it cu cu' R En) as (it' & ret & E & R' & Ho).
        rewrite E. cbn [bind fst snd]. unfold cur_out in Ho. rewrite vis_none, next_yielded in Hcur.
        rewrite (proj2 (Nat.ltb_ge j (length m))) in Hcur by lia.
        destruct (cu_cur cu') as [kv|]; [destruct Hcur as (i & Q & _); discriminate|].
        injection Ho as -> _ _ _. rewrite skipn_all2 by lia. reflexivity.
      - destruct (next_at uc uok mp d A L I None cu _ Hat) as (cu' & En & Hat').
        destruct (it_next_ok c (ibc_ok uc uok) mp mpok d A L I it cu cu' R En) as (it' & ret & E & R' & Ho).
        rewrite E. cbn [bind fst snd]. unfold cur_out in Ho. rewrite vis_none, next_yielded in Hat'.
        rewrite (proj2 (Nat.ltb_lt j (length m))) in Hat' by lia. pose proof Hat' as (_ & _ & Hcur).
        destruct (cu_cur cu') as [[k v]|]; [|destruct (cu_fwd cu'); discriminate].
        destruct Hcur as (i & Q & Hi). injection Q as <-. rewrite vis_none in Hi.
        injection Ho as -> _ Hk Hv.
        rewrite (IH fuel it' cu' (S j) R' Hat' ltac:(lia) ltac:(lia)). cbn [bind].
        rewrite Hk, Hv, (ListLemmas.skipn_nth_error m j (k, v) Hi). reflexivity.
    Qed.

    Lemma mem_iter_all_ok : mem_iter_all uc mp d = Some m.
    Proof.
      unfold mem_iter_all.
      rewrite (drain_ok (length m) (S (Z.to_nat (nEnt d))) (new_iter None) (new_cursor None) 0).
      - reflexivity.
      - unfold Rit, new_iter, new_cursor. cbn. auto.
      - unfold cu_at, new_cursor. cbn. auto.
      - reflexivity.
      - rewrite (inv_n _ _ _ _ _ I). unfold abs. rewrite map_length. lia.
    Qed.
  End WithInv.
End Drain.

Section MemFacts.
  Variable c : comparer.
  Hypothesis ok : comparer_ok c.
  Variable p : kparams.
  Hypothesis pok : kparams_ok p.
  Hypothesis seek_val : keyTypeSeek p <= keyTypeVal p.
  Variable mp : mparams.
  Hypothesis mpok : mparams_ok mp.

  (* flushMemdb's source: the iterator yields the pairs the read path's abstraction reads *)
  Theorem mem_iter_pairs d : mem_ok c p mp d -> mem_iter_all c mp d = Some (mem_pairs mp d).
  Proof.
    intros [(A & L & I) _].
    rewrite (mem_pairs_abs c p seek_val mp mpok d A L I).
    exact (mem_iter_all_ok c ok mp mpok d A L I).
  Qed.

  (* memdb.New *)
  Theorem mem_new_ok : exists d0, mdb_new mp = Ok d0 /\ mem_ok c p mp d0 /\ mem_pairs mp d0 = [].
  Proof.
    destruct (new_ok (ibc c) mp mpok) as (d0 & E & I & Ea & _). exists d0. split; [exact E|].
    assert (Ep : mem_pairs mp d0 = []) by (rewrite (mem_pairs_abs c p seek_val mp mpok d0 [] [] I); exact Ea).
    split; [|exact Ep]. split; [exists [], []; exact I|]. unfold mem_keys_okb. rewrite Ep. reflexivity.
  Qed.
End MemFacts.
