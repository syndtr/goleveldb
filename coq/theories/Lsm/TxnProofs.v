(* Lsm/TxnProofs.v — the transaction machine refines the history machine: outside readers see exactly the
   committed writes, a transaction sees its own writes layered over them, commit is one write of all of
   them, discard is nothing; and the layout-level read path of a transaction. *)
From GL Require Import Base.OrderPre Lsm.LsmProofs Lsm.HistoryProofs Lsm.WfProofs Lsm.Txn.
From Coq Require Import Lia.

Section Proofs.
  Variable c : comparer.
  Hypothesis ok : comparer_ok c.
  Variable p : kparams.
  Hypothesis pok : kparams_ok p.

  Notation newest := (newest c).
  Notation vis := (vis c).
  Notation res := (History.res p).

  Lemma stamp_app seq a b : stamp seq (a ++ b) = stamp seq a ++ stamp (seq + N.of_nat (length a)) b.
  Proof.
    revert seq; induction a as [|[[kd k] v] a IH]; intros seq; cbn [app stamp length].
    - replace (seq + N.of_nat 0) with seq by lia. reflexivity.
    - rewrite IH. cbn [app]. do 3 f_equal. lia.
  Qed.

  Lemma hrun_snoc done o : hrun (done ++ [o]) = hstep (hrun done) o.
  Proof. unfold hrun. rewrite fold_left_app. reflexivity. Qed.

  Definition is_write (o : hop) : bool := match o with HWrite _ => true | _ => false end.

  Lemma hstep_nonwrite h o : is_write o = false ->
    h_seq (hstep h o) = h_seq h /\ h_hist (hstep h o) = h_hist h.
  Proof. destruct o; cbn; intros H; try discriminate; split; reflexivity. Qed.

  Lemma hops_ok_app h a b : hops_ok c p h (a ++ b) <-> hops_ok c p h a /\ hops_ok c p (fold_left hstep a h) b.
  Proof.
    revert h; induction a as [|o a IH]; intros h; cbn [app hops_ok fold_left]; [tauto|].
    rewrite IH. tauto.
  Qed.

  Lemma map_of_snoc done o : map_of c p (done ++ [o]) = map_step c p (map_of c p done) o.
  Proof. unfold map_of. rewrite fold_left_app. reflexivity. Qed.

  Definition mk_txn (base : N) (w : list wrec) : txn :=
    {| t_seq := base + N.of_nat (length w); t_writes := stamp base w |}.

  Definition kinds_recs (w : list wrec) : Prop := Forall (fun r => fst (fst r) <= keyTypeSeek p) w.

  Record sim (s : tstate) (l : lin_state) : Prop := {
    sim_h : ts_h s = hrun (l_done l);
    sim_t : ts_txn s = option_map (mk_txn (h_seq (ts_h s))) (l_cur l)
  }.

  Lemma sim_init : sim t_init lin_init.
  Proof. constructor; reflexivity. Qed.

  Lemma commit_is_write h w : commit_h h (mk_txn (h_seq h) w) = hstep h (HWrite w).
  Proof. reflexivity. Qed.

  Lemma txn_write_mk b w recs : txn_write (mk_txn b w) recs = mk_txn b (w ++ recs).
  Proof.
    unfold txn_write, mk_txn. cbn [t_seq t_writes]. rewrite stamp_app, app_length. f_equal. lia.
  Qed.

  Lemma open_txn_mk h : open_txn h = mk_txn (h_seq h) [].
  Proof. unfold open_txn, mk_txn. cbn [length stamp]. f_equal. lia. Qed.

  Lemma sim_step s l o : sim s l -> sim (tstep s o) (lin_step l o).
  Proof.
    intros [Hh Ht]. destruct s as [h tx], l as [done cur]. cbn [ts_h ts_txn l_done l_cur] in *. subst h.
    destruct cur as [w|]; cbn [option_map] in Ht; subst tx;
      destruct o as [[r| |i|s']| |recs|[|]| | |recs [|]]; constructor;
      cbn [tstep lin_step ts_txn ts_h l_cur l_done with_h option_map];
      rewrite ?hrun_snoc, ?open_txn_mk, ?txn_write_mk; reflexivity.
  Qed.

  Lemma sim_run_from ops : forall s l, sim s l -> sim (trun_from s ops) (lin_from l ops).
  Proof.
    induction ops as [|o ops IH]; intros s l H; cbn [trun_from lin_from fold_left]; [exact H|].
    apply IH. apply sim_step. exact H.
  Qed.

  (* The transaction machine refines the history machine: after any trace the shared state is exactly the
     state of the history machine run on the linearised trace, and the open transaction (if any) holds
     exactly the records written through it, stamped with the sequence numbers above the shared one. *)
  Theorem txn_refines_history ops : sim (trun ops) (lin ops).
  Proof. apply sim_run_from. apply sim_init. Qed.

  Record inv (s : tstate) (l : lin_state) : Prop := {
    inv_sim : sim s l;
    inv_ok : hops_ok c p h_init (l_done l);
    inv_cur : match l_cur l with Some w => kinds_recs w | None => True end
  }.

  Lemma hops_ok_snoc done o : hops_ok c p h_init done -> hop_ok c p (hrun done) o ->
    hops_ok c p h_init (done ++ [o]).
  Proof. intros H1 H2. apply hops_ok_app. split; [exact H1|]. cbn [hops_ok]. split; [exact H2|exact I]. Qed.

  Lemma inv_init : inv t_init lin_init.
  Proof. constructor; [apply sim_init|exact I|exact I]. Qed.

  Lemma inv_step s l o : inv s l -> top_ok c p s o -> inv (tstep s o) (lin_step l o).
  Proof.
    intros [Hs Hok Hc] Ho. constructor; [apply sim_step; exact Hs| |].
    - destruct Hs as [Hh _]. destruct l as [done cur]. cbn [l_done l_cur] in *.
      destruct cur as [w|]; destruct o as [o'| |recs|okc| | |recs okb]; cbn [lin_step l_done l_cur]; try exact Hok.
      + destruct o'; cbn [lin_step l_done l_cur]; try exact Hok;
          apply hops_ok_snoc; try exact Hok; rewrite <- Hh; exact Ho.
      + destruct okc; cbn [lin_step l_done l_cur]; [|exact Hok].
        apply hops_ok_snoc; [exact Hok|]. exact Hc.
      + destruct o'; cbn [lin_step l_done l_cur];
          apply hops_ok_snoc; try exact Hok; rewrite <- Hh; exact Ho.
      + destruct okc; exact Hok.
      + destruct okb; cbn [l_done]; [|exact Hok]. apply hops_ok_snoc; [exact Hok|]. exact Ho.
    - destruct l as [done cur]. cbn [l_done l_cur] in *.
      destruct cur as [w|]; destruct o as [o'| |recs|okc| | |recs okb]; cbn [lin_step l_done l_cur]; try exact I; try exact Hc.
      + destruct o'; exact Hc.
      + apply Forall_app. split; [exact Hc|exact Ho].
      + destruct okc; [exact I|exact Hc].
      + destruct o'; exact I.
      + constructor.
      + destruct okc; exact I.
      + destruct okb; exact I.
  Qed.

  Lemma inv_run_from ops : forall s l, inv s l -> tops_ok c p s ops -> inv (trun_from s ops) (lin_from l ops).
  Proof.
    induction ops as [|o ops IH]; intros s l H Hok; cbn [trun_from lin_from fold_left]; [exact H|].
    destruct Hok as [Ho Hrest]. apply IH; [apply inv_step; assumption|exact Hrest].
  Qed.

  Lemma inv_run ops : tops_ok c p t_init ops -> inv (trun ops) (lin ops).
  Proof. apply inv_run_from. apply inv_init. Qed.

  Theorem lin_ok ops : tops_ok c p t_init ops -> hops_ok c p h_init (l_done (lin ops)).
  Proof. intros H. apply (inv_ok _ _ (inv_run ops H)). Qed.

  Lemma trun_hinv ops : tops_ok c p t_init ops -> hinv c p (ts_h (trun ops)).
  Proof.
    intros H. rewrite (sim_h _ _ (txn_refines_history ops)). unfold hrun.
    apply hinv_run_from; [apply hinv_init|apply lin_ok; exact H].
  Qed.

  Theorem outside_is_map ops k : tops_ok c p t_init ops ->
    out_get c p (trun ops) k (h_seq (ts_h (trun ops))) = a_get c k (base_map c p ops).
  Proof.
    intros H. unfold out_get, base_map. rewrite (sim_h _ _ (txn_refines_history ops)).
    apply get_is_map; [exact ok|apply lin_ok; exact H].
  Qed.

  Theorem txn_reads_overlay_gen ops k : tops_ok c p t_init ops -> ts_txn (trun ops) <> None ->
    txn_get c p (trun ops) k = a_get c k (overlay_map c p ops).
  Proof.
    intros H Hopen. pose proof (outside_is_map ops k H) as Hout.
    pose proof (trun_hinv ops H) as Hinv.
    destruct (txn_refines_history ops) as [Hh Ht].
    unfold txn_get, overlay_map. rewrite Ht in Hopen |- *.
    destruct (l_cur (lin ops)) as [w|]; cbn [option_map] in *; [|congruence].
    unfold mk_txn. cbn [t_seq t_writes].
    apply (hist_recs c ok p k w (h_seq (ts_h (trun ops))) (h_store (ts_h (trun ops))) (base_map c p ops)).
    - apply (hi_store_le c p _ Hinv).
    - exact Hout.
  Qed.

  Lemma lin_step_extends l o : exists d, l_done (lin_step l o) = l_done l ++ d.
  Proof.
    destruct l as [done [w|]], o as [[r| |i|s']| |recs|[|]| | |recs [|]]; cbn [lin_step l_done l_cur];
      (eexists; reflexivity) || (exists []; symmetry; apply app_nil_r).
  Qed.

  Lemma lin_from_extends ops : forall l, exists d, l_done (lin_from l ops) = l_done l ++ d.
  Proof.
    induction ops as [|o ops IH]; intros l; cbn [lin_from fold_left].
    - exists []. rewrite app_nil_r. reflexivity.
    - destruct (lin_step_extends l o) as [d1 E1]. destruct (IH (lin_step l o)) as [d2 E2].
      exists (d1 ++ d2). unfold lin_from in E2. rewrite E2, E1, app_assoc. reflexivity.
  Qed.

  Lemma lin_app a b : lin (a ++ b) = lin_from (lin a) b.
  Proof. unfold lin, lin_from. apply fold_left_app. Qed.

  Lemma trun_app a b : trun (a ++ b) = trun_from (trun a) b.
  Proof. unfold trun, trun_from. apply fold_left_app. Qed.

  (* A snapshot taken at any instant (before, while or after a transaction is open) keeps showing the
     committed writes of that instant, whatever is committed or discarded later. *)
  Theorem snapshot_sees_base ops1 ops2 k : tops_ok c p t_init (ops1 ++ ops2) ->
    In (h_seq (ts_h (trun ops1))) (h_snaps (ts_h (trun (ops1 ++ ops2)))) ->
    out_get c p (trun (ops1 ++ ops2)) k (h_seq (ts_h (trun ops1))) = a_get c k (base_map c p ops1).
  Proof.
    intros H Hlive. pose proof (lin_ok _ H) as Hok.
    unfold out_get, base_map in *.
    rewrite (sim_h _ _ (txn_refines_history (ops1 ++ ops2))) in *.
    rewrite (sim_h _ _ (txn_refines_history ops1)) in *.
    rewrite lin_app in *. destruct (lin_from_extends ops2 (lin ops1)) as [d E]. rewrite E in *.
    apply (snapshot_stable c ok p (l_done (lin ops1)) d k); assumption.
  Qed.

  Lemma tops_ok_app s a b : tops_ok c p s (a ++ b) <-> tops_ok c p s a /\ tops_ok c p (trun_from s a) b.
  Proof.
    revert s; induction a as [|o a IH]; intros s; cbn [app tops_ok trun_from fold_left]; [tauto|].
    unfold trun_from in IH. rewrite IH. tauto.
  Qed.

  Lemma map_of_nonwrites done d : Forall (fun o => is_write o = false) d ->
    map_of c p (done ++ d) = map_of c p done.
  Proof.
    intros H. unfold map_of. rewrite fold_left_app. induction H as [|o d Ho _ IH] in done |- *; [reflexivity|].
    cbn [fold_left]. destruct o; try discriminate; apply IH.
  Qed.

  (* the shared state moves exactly as if the transaction did not exist; the sequence number and the history
     do not move at all *)
  Lemma body_keeps body : forall h t, forallb keeps_open body = true ->
    exists t',
      trun_from {| ts_h := h; ts_txn := Some t |} body =
        {| ts_h := ts_h (trun_from {| ts_h := h; ts_txn := None |} (body_outside body)); ts_txn := Some t' |}
      /\ ts_txn (trun_from {| ts_h := h; ts_txn := None |} (body_outside body)) = None
      /\ h_seq (ts_h (trun_from {| ts_h := h; ts_txn := None |} (body_outside body))) = h_seq h
      /\ h_hist (ts_h (trun_from {| ts_h := h; ts_txn := None |} (body_outside body))) = h_hist h.
  Proof.
    induction body as [|o body IH]; intros h t Hk.
    - exists t. cbn. repeat split; reflexivity.
    - cbn [forallb] in Hk. apply andb_prop in Hk as [Ho Hk].
      destruct o as [o'| |recs|okc| | |recs okb]; try discriminate Ho.
      + destruct o' as [r| |i|s'].
        * cbn [trun_from fold_left tstep ts_txn body_outside]. apply (IH h t Hk).
        * cbn [trun_from fold_left tstep ts_txn ts_h body_outside with_h].
          destruct (IH (hstep h HSnap) t Hk) as [t' (E1 & E2 & E3 & E4)]. exists t'. repeat split; assumption.
        * cbn [trun_from fold_left tstep ts_txn ts_h body_outside with_h].
          destruct (IH (hstep h (HRelease i)) t Hk) as [t' (E1 & E2 & E3 & E4)]. exists t'. repeat split; assumption.
        * cbn [trun_from fold_left tstep ts_txn ts_h body_outside with_h].
          destruct (IH (hstep h (HReorg s')) t Hk) as [t' (E1 & E2 & E3 & E4)]. exists t'. repeat split; assumption.
      + cbn [trun_from fold_left tstep ts_txn body_outside]. apply (IH h t Hk).
      + cbn [trun_from fold_left tstep ts_txn ts_h body_outside]. apply (IH h (txn_write t recs) Hk).
      + destruct okc; [discriminate Ho|]. cbn [trun_from fold_left tstep ts_txn body_outside]. apply (IH h t Hk).
      + cbn [trun_from fold_left tstep ts_txn body_outside]. apply (IH h t Hk).
  Qed.

  Lemma lin_body body : forall done w, forallb keeps_open body = true ->
    exists d, lin_from {| l_done := done; l_cur := Some w |} body =
                {| l_done := done ++ d; l_cur := Some (w ++ body_writes body) |}
              /\ Forall (fun o => is_write o = false) d.
  Proof.
    induction body as [|o body IH]; intros done w Hk.
    - exists []. cbn. rewrite !app_nil_r. split; [reflexivity|constructor].
    - cbn [forallb] in Hk. apply andb_prop in Hk as [Ho Hk].
      destruct o as [o'| |recs|okc| | |recs okb]; try discriminate Ho.
      + destruct o' as [r| |i|s'].
        * cbn [lin_from fold_left lin_step l_cur body_writes]. apply (IH done w Hk).
        * cbn [lin_from fold_left lin_step l_cur l_done body_writes].
          destruct (IH (done ++ [HSnap]) w Hk) as [d [E F]]. exists (HSnap :: d).
          unfold lin_from in E. rewrite E, <- app_assoc. split; [reflexivity|constructor; [reflexivity|exact F]].
        * cbn [lin_from fold_left lin_step l_cur l_done body_writes].
          destruct (IH (done ++ [HRelease i]) w Hk) as [d [E F]]. exists (HRelease i :: d).
          unfold lin_from in E. rewrite E, <- app_assoc. split; [reflexivity|constructor; [reflexivity|exact F]].
        * cbn [lin_from fold_left lin_step l_cur l_done body_writes].
          destruct (IH (done ++ [HReorg s']) w Hk) as [d [E F]]. exists (HReorg s' :: d).
          unfold lin_from in E. rewrite E, <- app_assoc. split; [reflexivity|constructor; [reflexivity|exact F]].
      + cbn [lin_from fold_left lin_step l_cur body_writes]. apply (IH done w Hk).
      + cbn [lin_from fold_left lin_step l_cur l_done body_writes].
        destruct (IH done (w ++ recs) Hk) as [d [E F]]. exists d. unfold lin_from in E. rewrite E, <- app_assoc.
        split; [reflexivity|exact F].
      + destruct okc; [discriminate Ho|]. cbn [lin_from fold_left lin_step l_cur body_writes]. apply (IH done w Hk).
      + cbn [lin_from fold_left lin_step l_cur body_writes]. apply (IH done w Hk).
  Qed.

  Lemma closed_cur ops : ts_txn (trun ops) = None -> l_cur (lin ops) = None.
  Proof.
    intros H. rewrite (sim_t _ _ (txn_refines_history ops)) in H.
    destruct (l_cur (lin ops)); [discriminate|reflexivity].
  Qed.

  Lemma closed_state ops : ts_txn (trun ops) = None -> trun ops = {| ts_h := ts_h (trun ops); ts_txn := None |}.
  Proof. intros H. destruct (trun ops) as [h t]. cbn in *. subst t. reflexivity. Qed.

  (* the linearised trace of [ops1 ++ TOpen :: body]: what ops1 gave, then only non-writes; the open
     transaction holds body_writes *)
  Lemma lin_open_body ops1 body : ts_txn (trun ops1) = None -> forallb keeps_open body = true ->
    exists d, lin (ops1 ++ TOpen :: body) =
                {| l_done := l_done (lin ops1) ++ d; l_cur := Some (body_writes body) |}
              /\ Forall (fun o => is_write o = false) d.
  Proof.
    intros Hc Hk. rewrite lin_app. pose proof (closed_cur ops1 Hc) as Hcur.
    destruct (lin ops1) as [done cur]. cbn [l_cur l_done] in *. subst cur.
    cbn [lin_from fold_left lin_step l_cur l_done].
    destruct (lin_body body done [] Hk) as [d [E F]]. exists d. unfold lin_from in E. rewrite E. split; [reflexivity|exact F].
  Qed.

  Lemma base_map_open_body ops1 body : ts_txn (trun ops1) = None -> forallb keeps_open body = true ->
    base_map c p (ops1 ++ TOpen :: body) = base_map c p ops1.
  Proof.
    intros Hc Hk. destruct (lin_open_body ops1 body Hc Hk) as [d [E F]].
    unfold base_map. rewrite E. cbn [l_done]. apply map_of_nonwrites. exact F.
  Qed.

  Lemma overlay_map_open_body ops1 body : ts_txn (trun ops1) = None -> forallb keeps_open body = true ->
    overlay_map c p (ops1 ++ TOpen :: body) = fold_left (a_apply c p) (body_writes body) (base_map c p ops1).
  Proof.
    intros Hc Hk. unfold overlay_map. rewrite (base_map_open_body ops1 body Hc Hk).
    destruct (lin_open_body ops1 body Hc Hk) as [d [E F]]. rewrite E. reflexivity.
  Qed.

  Lemma state_open_body ops1 body : ts_txn (trun ops1) = None -> forallb keeps_open body = true ->
    exists t', trun (ops1 ++ TOpen :: body) =
                 {| ts_h := ts_h (trun (ops1 ++ body_outside body)); ts_txn := Some t' |}
      /\ ts_txn (trun (ops1 ++ body_outside body)) = None
      /\ h_seq (ts_h (trun (ops1 ++ body_outside body))) = h_seq (ts_h (trun ops1))
      /\ h_hist (ts_h (trun (ops1 ++ body_outside body))) = h_hist (ts_h (trun ops1)).
  Proof.
    intros Hc Hk. rewrite !trun_app. rewrite (closed_state ops1 Hc).
    cbn [trun_from fold_left tstep ts_txn ts_h].
    apply (body_keeps body (ts_h (trun ops1)) (open_txn (ts_h (trun ops1))) Hk).
  Qed.

  (* C11, isolation: while the transaction is open (through any number of its own writes, failed commits,
     outside snapshots, releases, background reorganisations and held-back writers) the sequence number and
     the history of the DB do not move; a read at the current sequence number returns the plain map of the
     writes committed before it was opened; every protected read (current or any live snapshot, taken before
     or while it is open) is answered as the history at open answers it; the private entries all carry
     sequence numbers above the DB's. *)
  Theorem txn_invisible_outside ops1 body :
    ts_txn (trun ops1) = None -> forallb keeps_open body = true ->
    tops_ok c p t_init (ops1 ++ TOpen :: body) ->
    let s0 := trun ops1 in let s1 := trun (ops1 ++ TOpen :: body) in
    ts_txn s1 <> None /\
    h_seq (ts_h s1) = h_seq (ts_h s0) /\ h_hist (ts_h s1) = h_hist (ts_h s0) /\
    (forall k, out_get c p s1 k (h_seq (ts_h s1)) = a_get c k (base_map c p ops1)) /\
    (forall k q, protected (ts_h s1) q -> out_get c p s1 k q = hist_get c p (ts_h s0) k q) /\
    (forall t x, ts_txn s1 = Some t -> In x (t_writes t) -> h_seq (ts_h s1) < e_seq x <= t_seq t).
  Proof.
    intros Hc Hk Hok s0 s1.
    destruct (state_open_body ops1 body Hc Hk) as [t' (E & _ & Eseq & Ehist)].
    assert (Hs : h_seq (ts_h s1) = h_seq (ts_h s0)) by (unfold s1, s0; rewrite E; exact Eseq).
    assert (Hh : h_hist (ts_h s1) = h_hist (ts_h s0)) by (unfold s1, s0; rewrite E; exact Ehist).
    split; [unfold s1; rewrite E; discriminate|]. split; [exact Hs|]. split; [exact Hh|]. split; [|split].
    - intros k. unfold s1. rewrite (outside_is_map _ k Hok). rewrite (base_map_open_body ops1 body Hc Hk). reflexivity.
    - intros k q Hq. unfold out_get. unfold s1 in *.
      pose proof (lin_ok _ Hok) as Hlok.
      rewrite (sim_h _ _ (txn_refines_history (ops1 ++ TOpen :: body))) in Hq |- *.
      rewrite (history_correct c p _ Hlok k q Hq).
      rewrite <- (sim_h _ _ (txn_refines_history (ops1 ++ TOpen :: body))).
      unfold hist_get. rewrite Hh. reflexivity.
    - intros t x Ht Hx. unfold s1 in *.
      rewrite (sim_t _ _ (txn_refines_history (ops1 ++ TOpen :: body))) in Ht.
      destruct (l_cur (lin (ops1 ++ TOpen :: body))) as [w|]; cbn [option_map] in Ht; [|discriminate].
      injection Ht as <-. unfold mk_txn in *. cbn [t_writes t_seq] in *. apply stamp_seq in Hx. exact Hx.
  Qed.

  (* C11, the transaction's own view: its writes so far layered over the plain map at open. *)
  Theorem txn_reads_overlay ops1 body k :
    ts_txn (trun ops1) = None -> forallb keeps_open body = true ->
    tops_ok c p t_init (ops1 ++ TOpen :: body) ->
    txn_get c p (trun (ops1 ++ TOpen :: body)) k =
    a_get c k (fold_left (a_apply c p) (body_writes body) (base_map c p ops1)).
  Proof.
    intros Hc Hk Hok. rewrite <- (overlay_map_open_body ops1 body Hc Hk).
    apply txn_reads_overlay_gen; [exact Hok|].
    destruct (state_open_body ops1 body Hc Hk) as [t' (E & _)]. rewrite E. discriminate.
  Qed.

  (* C11, atomic commit: a successful Commit is ONE step of the history machine, the write of all the
     transaction's records; afterwards everyone reads the plain map of the base writes followed by all of
     them, which is what the transaction itself read just before. *)
  Theorem commit_atomic ops1 body :
    ts_txn (trun ops1) = None -> forallb keeps_open body = true ->
    tops_ok c p t_init (ops1 ++ TOpen :: body) ->
    let s1 := trun (ops1 ++ TOpen :: body) in
    let s2 := trun ((ops1 ++ TOpen :: body) ++ [TCommit true]) in
    s2 = {| ts_h := hstep (ts_h s1) (HWrite (body_writes body)); ts_txn := None |} /\
    (forall k, out_get c p s2 k (h_seq (ts_h s2)) =
               a_get c k (fold_left (a_apply c p) (body_writes body) (base_map c p ops1))) /\
    (forall k, out_get c p s2 k (h_seq (ts_h s2)) = txn_get c p s1 k).
  Proof.
    intros Hc Hk Hok s1 s2.
    destruct (lin_open_body ops1 body Hc Hk) as [d [El Fd]].
    assert (E2 : s2 = {| ts_h := hstep (ts_h s1) (HWrite (body_writes body)); ts_txn := None |}).
    { unfold s2. rewrite trun_app. fold s1. cbn [trun_from fold_left].
      pose proof (sim_t _ _ (txn_refines_history (ops1 ++ TOpen :: body))) as Ht. fold s1 in Ht.
      rewrite El in Ht. cbn [l_cur option_map] in Ht.
      destruct s1 as [h tx]. cbn [ts_txn ts_h] in *. subst tx. cbn [tstep ts_txn ts_h].
      rewrite commit_is_write. reflexivity. }
    assert (Hok2 : tops_ok c p t_init ((ops1 ++ TOpen :: body) ++ [TCommit true])).
    { apply tops_ok_app. split; [exact Hok|]. cbn. split; exact I. }
    assert (Hmap : forall k, out_get c p s2 k (h_seq (ts_h s2)) =
               a_get c k (fold_left (a_apply c p) (body_writes body) (base_map c p ops1))).
    { intros k. unfold s2. rewrite (outside_is_map _ k Hok2). f_equal.
      unfold base_map at 1. rewrite lin_app, El. cbn [lin_from fold_left lin_step l_cur l_done].
      rewrite map_of_snoc. cbn [map_step]. f_equal. apply map_of_nonwrites. exact Fd. }
    split; [exact E2|]. split; [exact Hmap|].
    intros k. rewrite Hmap. symmetry. apply txn_reads_overlay; assumption.
  Qed.

  (* why publishing the version before the sequence number is invisible: entries above a reader's sequence
     number do not count *)
  Theorem commit_window_unobservable h t k q :
    (forall x, In x (t_writes t) -> h_seq h < e_seq x) -> q <= h_seq h ->
    store_get c p (publish_version h t) k q = store_get c p h k q.
  Proof.
    intros Hnew Hq. unfold store_get, publish_version. cbn [h_store].
    rewrite (newest_app c). f_equal. apply (newest_none c). intros x Hx.
    specialize (Hnew x Hx). unfold Lsm.vis. destruct (cmp c (e_uk x) k); [|reflexivity|reflexivity].
    apply N.leb_gt. lia.
  Qed.

  (* C11, Discard (and Close with the transaction open): the whole run is the run in which the transaction
     never existed — same store, history, sequence number, snapshots — so nothing of it can ever show. *)
  Theorem discard_no_trace ops1 body fin :
    ts_txn (trun ops1) = None -> forallb keeps_open body = true -> fin = TDiscard \/ fin = TClose ->
    trun ((ops1 ++ TOpen :: body) ++ [fin]) = trun (ops1 ++ body_outside body) /\
    h_seq (ts_h (trun ((ops1 ++ TOpen :: body) ++ [fin]))) = h_seq (ts_h (trun ops1)) /\
    h_hist (ts_h (trun ((ops1 ++ TOpen :: body) ++ [fin]))) = h_hist (ts_h (trun ops1)).
  Proof.
    intros Hc Hk Hf. destruct (state_open_body ops1 body Hc Hk) as [t' (E & Enone & Eseq & Ehist)].
    assert (E2 : trun ((ops1 ++ TOpen :: body) ++ [fin]) = trun (ops1 ++ body_outside body)).
    { rewrite trun_app, E. cbn [trun_from fold_left].
      rewrite (closed_state _ Enone) at 2. destruct Hf as [-> | ->]; reflexivity. }
    rewrite E2. repeat split; assumption.
  Qed.

  (* C11, oversized batch: DB.Write of a batch larger than the write buffer is the write of all its records
     or nothing at all. *)
  Theorem large_batch_all_or_nothing s recs okb : ts_txn s = None ->
    tstep s (TBigWrite recs okb) =
    if okb then {| ts_h := hstep (ts_h s) (HWrite recs); ts_txn := None |} else s.
  Proof.
    intros H. destruct s as [h tx]. cbn [ts_txn ts_h] in *. subst tx. cbn [tstep ts_txn ts_h].
    destruct okb; [|reflexivity]. rewrite open_txn_mk, txn_write_mk. cbn [app]. rewrite commit_is_write. reflexivity.
  Qed.

  Theorem large_batch_reads ops recs okb k : ts_txn (trun ops) = None ->
    tops_ok c p t_init (ops ++ [TBigWrite recs okb]) ->
    let s := trun (ops ++ [TBigWrite recs okb]) in
    out_get c p s k (h_seq (ts_h s)) =
    a_get c k (if okb then fold_left (a_apply c p) recs (base_map c p ops) else base_map c p ops).
  Proof.
    intros Hc Hok s. unfold s. rewrite (outside_is_map _ k Hok). f_equal.
    unfold base_map. rewrite lin_app. pose proof (closed_cur ops Hc) as Hcur.
    destruct (lin ops) as [done cur]. cbn [l_cur l_done] in *. subst cur.
    cbn [lin_from fold_left lin_step l_cur l_done]. destruct okb; cbn [l_done]; [|reflexivity].
    rewrite map_of_snoc. reflexivity.
  Qed.

  (* other writers wait: while a transaction is open a write, an OpenTransaction and an oversized Write have
     no effect at that point of the trace (they take effect where they appear again, after it ended) *)
  Theorem writers_wait s t recs okb : ts_txn s = Some t ->
    tstep s (TOut (HWrite recs)) = s /\ tstep s TOpen = s /\ tstep s (TBigWrite recs okb) = s.
  Proof. intros H. destruct s as [h tx]. cbn in H. subst tx. repeat split; reflexivity. Qed.

  Lemma newest_skip_invisible k s A R : (forall x, In x A -> vis k s x = false) ->
    newest k s (A ++ R) None = newest k s R None.
  Proof. intros H. rewrite (newest_app c). rewrite (newest_none c k s A H). reflexivity. Qed.

  (* Transaction.Get (private buffer, then DB.get with the private tables in front of level 0) returns the
     newest visible entry among the private buffer and everything DB.get consults. *)
  Theorem txn_lsm_get_correct auxm st k s :
    ssorted c auxm -> kinds_ok p auxm -> newer_thanP auxm (all_entries st) -> wf_state c p st ->
    txn_lsm_get c p auxm st k s = group_res p (newest k s (auxm ++ all_entries st) None).
  Proof.
    intros Hs Hk Hn Hwf. unfold txn_lsm_get. rewrite (pcomp_get_newest c (comparer_ok_pre c ok) p pok k s auxm Hk Hs).
    rewrite (chain_step c ok k s auxm _ Hn).
    destruct (newest k s auxm None) as [a|]; cbn [group_res].
    - pose proof (res_nonmiss p a). destruct (res_of p a); congruence.
    - apply (get_correct c ok p pok). exact Hwf.
  Qed.

  Lemma in_levels_shared st y b : In y (map level_entries (st_levels st)) -> In b y -> In b (shared_entries st).
  Proof.
    intros Hy Hb. unfold shared_entries. apply in_or_app. right. apply in_or_app. right.
    apply in_map_iff in Hy as [ts [<- Hts]]. unfold level_entries in Hb.
    apply in_concat in Hb as [es [Hes Hb]]. apply in_map_iff in Hes as [t [<- Ht]].
    apply in_concat. exists (t_entries t). split; [|exact Hb].
    apply in_map. apply in_concat. exists ts. split; assumption.
  Qed.

  Lemma all_entries_split st : st_mem st = [] -> st_frozen st = [] ->
    all_entries st = level_entries (st_aux st) ++ all_entries (outside_of st).
  Proof.
    intros Hm Hf. unfold all_entries, all_tables, outside_of, level_entries. cbn [st_mem st_frozen st_aux st_levels].
    rewrite Hm, Hf. cbn [app]. rewrite map_app, concat_app. reflexivity.
  Qed.

  Lemma outside_entries_shared st x : In x (all_entries (outside_of st)) -> In x (shared_entries st).
  Proof. unfold all_entries, all_tables, outside_of, shared_entries. cbn [st_mem st_frozen st_aux st_levels app]. auto. Qed.

  (* The transaction's situation: the DB's own buffers are empty, every private entry (buffer and private
     tables) is newer than [base] and every shared entry is at most [base].  Then (i) the private tables,
     consulted first, are sound: Transaction.Get returns the newest visible entry among private buffer,
     private tables and levels; (ii) at any sequence number up to [base] (what every outside reader uses, also
     while the commit has installed the tables but not yet published the sequence number) the private entries
     do not count: the read equals the outside read. *)
  Theorem aux_tables_first_sound auxm st base :
    st_mem st = [] -> st_frozen st = [] ->
    ssorted c auxm -> kinds_ok p auxm ->
    tables_ok c p (st_aux st) -> uniq (level_entries (st_aux st)) ->
    newer_thanP auxm (level_entries (st_aux st)) ->
    wf_state c p (outside_of st) ->
    (forall e, In e (private_entries auxm st) -> base < e_seq e) ->
    (forall e, In e (shared_entries st) -> e_seq e <= base) ->
    (forall k s, txn_lsm_get c p auxm st k s = group_res p (newest k s (auxm ++ all_entries st) None)) /\
    (forall k s, s <= base -> txn_lsm_get c p auxm st k s = lsm_get c p (outside_of st) k s) /\
    (forall k s, s <= base -> lsm_get c p st k s = lsm_get c p (outside_of st) k s).
  Proof.
    intros Hm Hf Hs Hk Hta Hua Hna Hwo Hpriv Hshared.
    assert (Hsep : forall a b, In a (private_entries auxm st) -> In b (shared_entries st) -> e_seq b < e_seq a).
    { intros a b Ha Hb. specialize (Hpriv a Ha). specialize (Hshared b Hb). lia. }
    assert (Hwf : wf_state c p st).
    { destruct Hwo as [W1 W2 W3 W4 W5 W6]. cbn [outside_of st_mem st_frozen st_aux st_levels] in *.
      constructor; try assumption; [split; assumption|].
      unfold comps in *. cbn [outside_of st_mem st_frozen st_aux st_levels chain_newer] in *.
      rewrite Hm, Hf in *. destruct W6 as [_ [_ [_ W6]]].
      split; [apply Forall_forall; intros y _ a b []|].
      split; [apply Forall_forall; intros y _ a b []|].
      split; [|exact W6].
      apply Forall_forall. intros y Hy a b Ha Hb _. apply Hsep.
      - unfold private_entries. apply in_or_app. right. exact Ha.
      - eapply in_levels_shared; eassumption. }
    assert (Hnew : newer_thanP auxm (all_entries st)).
    { intros a b Ha Hb Hab. rewrite (all_entries_split st Hm Hf) in Hb. apply in_app_or in Hb as [Hb|Hb].
      - apply (Hna a b Ha Hb Hab).
      - apply Hsep; [unfold private_entries; apply in_or_app; left; exact Ha|apply outside_entries_shared; exact Hb]. }
    assert (Hinv : forall k s, s <= base -> forall x, In x (private_entries auxm st) -> vis k s x = false).
    { intros k s Hle x Hx. specialize (Hpriv x Hx). unfold Lsm.vis.
      destruct (cmp c (e_uk x) k); [|reflexivity|reflexivity]. apply N.leb_gt. lia. }
    split; [|split].
    - intros k s. apply txn_lsm_get_correct; assumption.
    - intros k s Hle. rewrite (txn_lsm_get_correct auxm st k s Hs Hk Hnew Hwf).
      rewrite (get_correct c ok p pok (outside_of st) k s Hwo).
      rewrite (all_entries_split st Hm Hf), app_assoc. f_equal.
      apply newest_skip_invisible. apply (Hinv k s Hle).
    - intros k s Hle. rewrite (get_correct c ok p pok st k s Hwf), (get_correct c ok p pok (outside_of st) k s Hwo).
      rewrite (all_entries_split st Hm Hf). f_equal. apply newest_skip_invisible.
      intros x Hx. apply (Hinv k s Hle). unfold private_entries. apply in_or_app. right. exact Hx.
  Qed.

  (* the boolean the correspondence check evaluates on dumped transaction states implies the sequence
     hypotheses above, with base = the DB's sequence number *)
  Theorem txn_private_okb_sound dbseq tseq auxm st : txn_private_okb dbseq tseq auxm st = true ->
    (forall e, In e (private_entries auxm st) -> dbseq < e_seq e <= tseq) /\
    (forall e, In e (shared_entries st) -> e_seq e <= dbseq) /\
    st_mem st = [] /\ st_frozen st = [].
  Proof.
    unfold txn_private_okb. intros H.
    apply andb_prop in H as [H H6]. apply andb_prop in H as [H H5]. apply andb_prop in H as [H _].
    apply andb_prop in H as [_ H3].
    split; [|split].
    - intros e He. rewrite forallb_forall in H3. specialize (H3 e He). apply andb_prop in H3 as [A B].
      apply N.ltb_lt in A. apply N.leb_le in B. lia.
    - intros e He. rewrite forallb_forall in H5. specialize (H5 e He). apply N.leb_le in H5. exact H5.
    - destruct (st_mem st); [|discriminate]. destruct (st_frozen st); [|discriminate]. split; reflexivity.
  Qed.

  (* the certificate evaluated by the correspondence check on every dumped transaction state implies the
     conclusions of aux_tables_first_sound for that state *)
  Theorem txn_layout_cert_sound dbseq tseq auxm st : txn_layout_okb c p dbseq tseq auxm st = true ->
    (forall k s, txn_lsm_get c p auxm st k s = group_res p (newest k s (auxm ++ all_entries st) None)) /\
    (forall k s, s <= dbseq -> txn_lsm_get c p auxm st k s = lsm_get c p (outside_of st) k s) /\
    (forall k s, s <= dbseq -> lsm_get c p st k s = lsm_get c p (outside_of st) k s).
  Proof.
    unfold txn_layout_okb. intros H.
    apply andb_prop in H as [H H7]. apply andb_prop in H as [H H6]. apply andb_prop in H as [H H5].
    apply andb_prop in H as [H H4]. apply andb_prop in H as [H H3]. apply andb_prop in H as [H1 H2].
    destruct (txn_private_okb_sound dbseq tseq auxm st H1) as (P1 & P2 & Pm & Pf).
    apply (aux_tables_first_sound auxm st dbseq); try assumption.
    - apply (sortedb_ssorted c ok); assumption.
    - apply kindsb_ok; assumption.
    - apply (ptables_okb_ok c (comparer_ok_pre c ok)); assumption.
    - apply uniqb_nodup. exact H5.
    - apply (newer_than_P c ok); assumption.
    - pose proof (wf_versionb_sound c ok p (st_levels st) H7) as W.
      destruct st as [m f a l]. cbn [st_mem st_frozen st_levels outside_of] in *. subst m f. exact W.
    - intros e He. apply P1. exact He.
  Qed.
End Proofs.
