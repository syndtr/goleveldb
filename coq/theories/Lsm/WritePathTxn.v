(* Lsm/WritePathTxn.v — the byte-level step of a committed transaction (Lsm/WritePath.v b_txn_commit; also DB.Write of a
   batch larger than the write buffer): the records go into the transaction's own memdb at db.seq+1.., Commit flushes it into
   ONE table that a record committed with trivial = false adds at level 0 (versionStaging.finish re-sorts level 0 by file
   number).  OpenTransaction has flushed the DB's memdbs: the step is enabled only without a frozen memdb and with an empty
   live one.  Proved here: the L1 step (finish with trivial = false of the one-table record keeps WfLsm.wf_lsm — the case
   property C06 left to the correspondence check, for one added level-0 table that is newer than everything stored) and the
   byte-level step theorem. *)
From GL Require Import Codec.TableSizes Codec.Batch Lsm.LsmProofs Lsm.History Lsm.HistoryProofs Lsm.ReorgProofs
  Lsm.Pick Lsm.PickBase Lsm.WfLsm Lsm.ModelStep Lsm.FinishProofs Lsm.StepProofs Lsm.ReadPath Lsm.ReadPathMem
  Lsm.ReadPathProofs Lsm.BatchWriteProofs Lsm.WritePath Lsm.WritePathMem Lsm.WritePathInstall Lsm.WritePathSteps.
From GL Require Mem.ListLemmas.
From Coq Require Import Lia Permutation.
Open Scope N_scope.

Lemma ins_num_perm t l : Permutation (ins_num t l) (t :: l).
Proof.
  induction l as [|x l IH]; cbn [ins_num]; [apply Permutation_refl|].
  destruct (t_num x <? t_num t); [apply Permutation_refl|].
  eapply Permutation_trans; [apply perm_skip; exact IH|apply perm_swap].
Qed.

Lemma sort_by_num_perm l : Permutation (sort_by_num l) l.
Proof.
  induction l as [|t l IH]; [apply Permutation_refl|]. cbn [sort_by_num fold_right]. fold (sort_by_num l).
  eapply Permutation_trans; [apply ins_num_perm|apply perm_skip; exact IH].
Qed.

Lemma perm_LE a b : Permutation a b -> Permutation (LE a) (LE b).
Proof.
  intros H. unfold LE, LsmProofs.level_entries. rewrite <- !flat_map_concat_map. apply Permutation_flat_map. exact H.
Qed.

Lemma uniq_perm a b : Permutation a b -> uniq a -> uniq b.
Proof. unfold uniq. intros H U. eapply Permutation_NoDup; [apply Permutation_map; exact H|exact U]. Qed.

Lemma ins_num_sorted t l : nums_sorted l -> (forall x, In x l -> t_num x <> t_num t) -> nums_sorted (ins_num t l).
Proof.
  induction l as [|x l IH]; intros Hs Hd; cbn [ins_num]; [split; [constructor|exact I]|].
  destruct Hs as [Hf Hs]. destruct (t_num x <? t_num t) eqn:E.
  - apply N.ltb_lt in E. split; [|split; assumption].
    constructor; [exact E|]. eapply Forall_impl; [|exact Hf]. cbn beta. intros y Hy. lia.
  - apply N.ltb_ge in E. assert (Hx : t_num x <> t_num t) by (apply Hd; left; reflexivity).
    split.
    + apply Forall_forall. intros y Hy. apply (Permutation_in _ (ins_num_perm t l)) in Hy.
      destruct Hy as [<-|Hy]; [lia|]. rewrite Forall_forall in Hf. apply Hf. exact Hy.
    + apply IH; [exact Hs|]. intros y Hy. apply Hd. right. exact Hy.
Qed.

Lemma sort_by_num_sorted l : NoDup (nums_of l) -> nums_sorted (sort_by_num l).
Proof.
  induction l as [|t l IH]; intros Hn; [exact I|]. cbn [sort_by_num fold_right]. fold (sort_by_num l).
  cbn [nums_of map] in Hn. inversion Hn as [|? ? Ht Hn']; subst.
  apply ins_num_sorted; [apply IH; exact Hn'|].
  intros x Hx E. apply Ht. apply (Permutation_in _ (sort_by_num_perm l)) in Hx. rewrite <- E. apply in_map. exact Hx.
Qed.

Section TxnL1.
  Variable c : comparer.
  Hypothesis ok : comparer_ok c.
  Variable p : kparams.

  Local Notation wf_lsm := (wf_lsm c p).

  (* the record of a committed transaction with one table *)
  Definition txn_edit (t : table) : edit := {| ed_del := []; ed_add := [(O, t)] |}.

  Lemma adds_at_txn t l : adds_at (txn_edit t) l = if Nat.eqb 0 l then [t] else [].
  Proof. unfold adds_at, txn_edit. cbn [ed_add filter fst]. destruct (Nat.eqb 0 l); reflexivity. Qed.

  Lemma dels_at_txn t l base : dels_at (txn_edit t) l base = [].
  Proof. unfold dels_at, txn_edit. cbn [ed_del filter map]. destruct base; reflexivity. Qed.

  (* L1: the table is well-formed, under an unused number, and newer than every stored entry of the same user key *)
  Theorem txn_install v t : wf_lsm v -> tbl_ok c p t -> uniq (t_entries t) ->
    (forall i x y, In x (t_entries t) -> In y (LE (lv v i)) -> e_uk x = e_uk y -> e_seq y < e_seq x) ->
    (forall i s, In s (lv v i) -> t_num s <> t_num t) ->
    exists nv, finish c false v (txn_edit t) = POk nv /\ wf_lsm nv /\
      Permutation (lv nv 0) (t :: lv v 0) /\ forall l, (0 < l)%nat -> lv nv l = lv v l.
  Proof.
    intros W Tt Ut Tn Tf.
    set (G := fun l : nat => match l with O => sort_by_num (lv v 0 ++ [t]) | S _ => lv v l end).
    destruct (finish_levels c false v (txn_edit t) G) as (nv & Ef & Hlv).
    { intros l. unfold level_fn. rewrite dels_at_txn, adds_at_txn. destruct l as [|l]; cbn [Nat.eqb G].
      - unfold finish_level. cbn [nums_of map memN existsb Nat.eqb]. rewrite ListLemmas.filter_all; [reflexivity|].
        intros s Hs. cbn [andb negb]. rewrite orb_false_r.
        destruct (N.eqb_spec (t_num s) (t_num t)) as [E|E]; [exfalso; apply (Tf 0%nat s Hs E)|reflexivity].
      - reflexivity. }
    assert (P0 : Permutation (lv nv 0) (t :: lv v 0)).
    { rewrite (Hlv 0%nat). cbn [G]. eapply Permutation_trans; [apply sort_by_num_perm|].
      eapply Permutation_trans; [apply Permutation_app_comm|apply Permutation_refl]. }
    assert (Pl : forall l, (0 < l)%nat -> lv nv l = lv v l) by (intros [|l] Hl; [lia|apply (Hlv (S l))]).
    exists nv. split; [exact Ef|]. split; [|split; assumption].
    assert (In0 : forall s, In s (lv nv 0) <-> s = t \/ In s (lv v 0)).
    { intros s. split; intros H.
      - apply (Permutation_in _ P0) in H. destruct H as [<-|H]; auto.
      - apply (Permutation_in _ (Permutation_sym P0)). destruct H as [->|H]; [left; reflexivity|right; exact H]. }
    constructor.
    - intros [|i] s Hs; [|rewrite Pl in Hs by lia; apply (wl_tbl c p v W (S i) s Hs)].
      apply In0 in Hs as [->|Hs]; [exact Tt|apply (wl_tbl c p v W 0%nat s Hs)].
    - intros [|i]; [|rewrite Pl by lia; apply (wl_uniq c p v W)].
      apply (uniq_perm (LE (t :: lv v 0))); [apply perm_LE; apply Permutation_sym; exact P0|].
      change (LE (t :: lv v 0)) with (t_entries t ++ LE (lv v 0)). apply uniq_app. split; [exact Ut|]. split; [apply (wl_uniq c p v W)|].
      intros x y Hx Hy E. unfold keyseq in E. injection E as Eu Es. pose proof (Tn 0%nat x y Hx Hy Eu). lia.
    - rewrite (Hlv 0%nat). cbn [G]. apply sort_by_num_sorted. unfold nums_of. rewrite map_app. apply ListLemmas.NoDup_app_iff.
      split; [|split].
      + apply nodup_map_in; [|apply (lv_nodup c p v W)]. intros a b Ha Hb E. apply (wl_nums c p v W 0%nat 0%nat a b Ha Hb E).
      + cbn [map]. constructor; [intros []|constructor].
      + intros n Hn [<-|[]]. apply in_map_iff in Hn as (s & E & Hs). apply (Tf 0%nat s Hs E).
    - intros i Hi. rewrite Pl by exact Hi. apply (wl_deep c p v W i Hi).
    - intros i j Hij. destruct i as [|i].
      + rewrite (Pl j) by lia. intros x y Hx Hy Hu. apply LE_in in Hx as (s & Hs & Hx). apply In0 in Hs as [->|Hs].
        * apply (Tn j x y Hx Hy Hu).
        * apply (wl_chain c p v W 0%nat j Hij x y); [apply LE_in; exists s; auto|exact Hy|exact Hu].
      + rewrite (Pl (S i)), (Pl j) by lia. apply (wl_chain c p v W (S i) j Hij).
    - intros i j s s' Hs Hs' E.
      assert (Hold : forall l x, In x (lv nv l) -> (l = 0%nat /\ x = t) \/ In x (lv v l)).
      { intros [|l] x Hx; [apply In0 in Hx as [->|Hx]; auto|rewrite Pl in Hx by lia; right; exact Hx]. }
      destruct (Hold i s Hs) as [[-> ->]|Hs0]; destruct (Hold j s' Hs') as [[-> ->]|Hs0'].
      + auto.
      + exfalso. apply (Tf j s' Hs0'). symmetry. exact E.
      + exfalso. apply (Tf i s Hs0 E).
      + apply (wl_nums c p v W i j s s' Hs0 Hs0' E).
  Qed.
End TxnL1.

Section TxnBytes.
  Variable c : comparer.
  Hypothesis ok : comparer_ok c.
  Variable p : kparams.
  Hypothesis pok : kparams_ok p.
  Hypothesis seek_val : keyTypeSeek p <= keyTypeVal p.
  Variable mp : MemDB.mparams.
  Hypothesis mpok : MemDB.mparams_ok mp.
  Variable tp : tparams.
  Hypothesis tp_ok : tparams_ok tp.
  Variable crc : bytes -> N.
  Hypothesis crc_bound : forall b, crc b < 2 ^ 32.
  Variable compress : bytes -> bytes.
  Variable decompress : bytes -> option bytes.
  Hypothesis codec_ok : forall x, decompress (compress x) = Some x.
  Hypothesis compress_ne : forall x, compress x <> [].
  Variable fname : option bytes.
  Variable ufc : bytes -> N -> bytes -> bool.
  Variable verify : bool.
  Variable o : wopts.
  Hypothesis ri_pos : 1 <= wo_ri o.

  Local Notation ri := (wo_ri o).
  Local Notation icr := (ibc c).
  Local Notation wfb := (wf_bstate c p mp tp crc decompress fname ufc verify ri).
  Local Notation absS := (ReadPath.abs c mp tp crc decompress fname ufc verify ri).
  Local Notation atab := (abs_table c tp crc decompress fname ufc verify ri).
  Local Notation okb := (tfile_okb c p tp crc decompress fname ufc verify ri).
  Local Notation av := (aversion c tp crc decompress fname ufc verify o).
  Local Notation bfull := (bfull c p mp tp crc decompress fname ufc verify o).
  Local Notation sizes_ok := (write_sizes_ok c p tp crc compress o).
  Local Notation tfilt := (table_filter_ok c p tp crc compress decompress fname ufc verify o).
  Local Notation wf_lsm := (wf_lsm c p).

  Lemma mem_empty_entries d : (forall m, d = Some m -> mem_ok c p mp m) ->
    mem_is_empty c mp d = true -> mem_entries mp d = [].
  Proof.
    intros Hm He. destruct d as [m|]; [|reflexivity]. unfold mem_is_empty in He.
    rewrite (mem_iter_pairs c ok p seek_val mp mpok m (Hm m eq_refl)) in He. cbn [mem_entries].
    destruct (mem_pairs mp m); [reflexivity|discriminate].
  Qed.

  Theorem txn_step st recs hs num seq :
    bfull st -> bs_frozen st = None -> mem_is_empty c mp (bs_mem st) = true ->
    (forall x, In x (all_entries (absS st)) -> e_seq x <= seq) ->
    Forall (rec_wf p) recs -> seq + N.of_nat (length recs) <= keyMaxSeq p -> heights_okl mp hs ->
    lenN (enc_recs p recs) < 2 ^ 63 ->
    (forall f, In f (files_of st) -> tf_num f <> num) ->
    (forall d0 d' hs', MemDB.mdb_new mp = MemDB.Ok d0 ->
       batch_putmem p icr mp (batch_of p recs) (seq + 1) d0 hs = PmOk d' hs' -> mem_pairs mp d' <> [] ->
       sizes_ok (mem_pairs mp d') = true /\ tfilt (mem_pairs mp d')) ->
    exists st', b_txn_commit c p mp tp crc compress decompress fname ufc verify o recs hs num seq st = Some st' /\ bfull st' /\
      bs_mem st' = bs_mem st /\ bs_frozen st' = None /\
      same_elems (all_entries (absS st) ++ stamp seq (map (norm_rec p) recs)) (all_entries (absS st')).
  Proof.
    intros B Hfz Hme Hbd Hrw Hsq Hhs Hlen Hfresh Hsz. pose proof B as [W Wl U].
    pose proof (mem_empty_entries (bs_mem st) (wb_mem _ _ _ _ _ _ _ _ _ _ _ W) Hme) as Emem.
    destruct (mem_new_ok c p seek_val mp mpok) as (d0 & E0 & M0 & P0).
    destruct (putmem_is_history_write c ok p pok seek_val mp mpok d0 recs seq hs M0) as (d' & hs' & Epm & Md' & _ & Hin); try assumption.
    { intros x Hx. cbn [mem_entries] in Hx. rewrite P0 in Hx. destruct Hx. }
    set (rs := map (norm_rec p) recs) in *.
    assert (Hin' : forall x, In x (mem_entries mp (Some d')) <-> In x (stamp seq rs)).
    { intros x. rewrite Hin. cbn [mem_entries]. rewrite P0. cbn [map In]. tauto. }
    unfold b_txn_commit. rewrite Hme, Hfz, E0, Epm. cbn [negb]. rewrite (mem_iter_pairs c ok p seek_val mp mpok d' Md').
    assert (Eall : forall x, In x (all_entries (absS st)) <-> In x (LE (concat (av st)))).
    { intros x. rewrite (all_entries_abs c mp tp crc decompress fname ufc verify o), Emem, Hfz. cbn [mem_entries app]. reflexivity. }
    destruct (mem_pairs mp d') as [|kv0 kvr] eqn:Ekv.
    - (* no record *)
      exists st. split; [reflexivity|]. split; [exact B|]. split; [reflexivity|]. split; [exact Hfz|].
      assert (Es : stamp seq rs = []).
      { destruct (stamp seq rs) as [|e r] eqn:Q; [reflexivity|]. exfalso.
        assert (Hx : In e (mem_entries mp (Some d'))) by (apply Hin'; left; reflexivity).
        cbn [mem_entries] in Hx. rewrite Ekv in Hx. destruct Hx. }
      rewrite Es, app_nil_r. intros x; reflexivity.
    - set (kvs := kv0 :: kvr) in *. assert (Hne : kvs <> []) by discriminate.
      destruct (Hsz d0 d' hs' E0 Epm) as [Hs1 Hs2]; [rewrite Ekv; exact Hne|]. rewrite Ekv in Hs1, Hs2.
      destruct (write_table_ok c ok p pok tp tp_ok crc crc_bound compress decompress codec_ok compress_ne fname ufc verify o ri_pos num kvs Hne)
        as (f & Ewt & Hokf & Hpf & Enum); [| |exact Hs1| |].
      { rewrite <- Ekv. exact (mem_ok_pairs_sorted c p seek_val mp mpok d' Md'). }
      { rewrite <- Ekv. exact (mem_ok_keys c p mp d' Md'). }
      { destruct Hs2 as [Hn|Hf]; [left; exact Hn|right; exact (Hf num)]. }
      set (t := {| t_num := num; t_entries := mem_entries mp (Some d') |}).
      assert (Etab : atab f = t).
      { unfold abs_table, t. rewrite Hpf, Enum. cbn [mem_entries]. rewrite Ekv. reflexivity. }
      rewrite Ewt.
      destruct (mem_ok_entries c ok p pok seek_val mp mpok d' Md') as [St Kt].
      pose proof (uniq_in_app_stamp _ seq rs U Hbd) as Ust.
      destruct (txn_install c p (av st) t Wl) as (nv & Ef & Wnv & P0' & Pl).
      { split; [split; assumption|]. cbn [t t_entries mem_entries]. rewrite Ekv. discriminate. }
      { cbn [t t_entries]. apply (ssorted_uniq c ok); [exact St|].
        intros a b Ha Hb2. apply Ust; apply in_or_app; right; apply Hin'; assumption. }
      { intros i x y Hx Hy _. cbn [t t_entries] in Hx. apply Hin' in Hx. apply stamp_seq in Hx as [Hx _].
        assert (Hy' : In y (all_entries (absS st))) by (apply Eall; apply in_LE_concat; exists i; exact Hy).
        specialize (Hbd y Hy'). lia. }
      { intros i s Hs. destruct (in_level_file c p seek_val tp crc decompress fname ufc verify o ri_pos st i s Hs) as (g & Hg & <-).
        cbn [t t_num abs_table]. apply Hfresh. exact Hg. }
      change {| ed_del := []; ed_add := [(0%nat, atab f)] |} with (txn_edit (atab f)). rewrite Etab.
      destruct (install_ok c p seek_val mp tp crc decompress fname ufc verify o ri_pos false st [f] (txn_edit t) (bs_mem st) None nv W Wl Ef)
        as (st' & Ei & Em' & Ef' & Eav & Hall & _).
      { constructor; [exact Hokf|constructor]. }
      { cbn [app map]. constructor; [|apply (files_nodup c p tp crc decompress fname ufc verify o); exact Wl].
        intros Hi. apply in_map_iff in Hi as (g & Eg & Hg). apply (Hfresh g Hg). rewrite Eg. exact Enum. }
      { intros l t' Ht'. rewrite adds_at_txn in Ht'. destruct (Nat.eqb 0 l); [|destruct Ht']. destruct Ht' as [<-|[]].
        exists f. split; [left; reflexivity|exact Etab]. }
      exists st'. split; [exact Ei|].
      assert (HLE : forall x, In x (LE (concat (av st'))) <-> In x (t_entries t) \/ In x (LE (concat (av st)))).
      { intros x. rewrite Eav, !in_LE_concat. split.
        - intros ([|i] & Hx).
          + apply (Permutation_in _ (perm_LE _ _ P0')) in Hx. change (LE (t :: lv (av st) 0)) with (t_entries t ++ LE (lv (av st) 0)) in Hx.
            apply in_app_or in Hx as [Hx|Hx]; [left; exact Hx|right; exists 0%nat; exact Hx].
          + rewrite Pl in Hx by lia. right. exists (S i). exact Hx.
        - intros [Hx|([|i] & Hx)].
          + exists 0%nat. apply (Permutation_in _ (Permutation_sym (perm_LE _ _ P0'))).
            change (LE (t :: lv (av st) 0)) with (t_entries t ++ LE (lv (av st) 0)). apply in_or_app. left. exact Hx.
          + exists 0%nat. apply (Permutation_in _ (Permutation_sym (perm_LE _ _ P0'))).
            change (LE (t :: lv (av st) 0)) with (t_entries t ++ LE (lv (av st) 0)). apply in_or_app. right. exact Hx.
          + exists (S i). rewrite Pl by lia. exact Hx. }
      assert (SE : same_elems (all_entries (absS st) ++ stamp seq rs) (all_entries (absS st'))).
      { intros x. rewrite in_app_iff, Eall.
        rewrite (all_entries_abs c mp tp crc decompress fname ufc verify o st'), Em', Ef', Emem. cbn [mem_entries app].
        rewrite HLE. cbn [t t_entries]. rewrite Hin'. tauto. }
      split; [constructor|].
      + constructor.
        * rewrite Em'. exact (wb_mem _ _ _ _ _ _ _ _ _ _ _ W).
        * rewrite Ef'. intros x Hx. discriminate.
        * exact Hall.
        * change (absS st') with {| st_mem := mem_entries mp (bs_mem st'); st_frozen := mem_entries mp (bs_frozen st'); st_aux := []; st_levels := av st' |}.
          rewrite Em', Ef', Emem. cbn [mem_entries].
          apply (wf_state_parts c p [] [] (av st') I (Forall_nil _) I (Forall_nil _)); [rewrite Eav; exact Wnv|intros a b []|intros i a b []|intros i a b []].
      + rewrite Eav. exact Wnv.
      + apply (uniq_in_same _ _ SE Ust).
      + split; [exact Em'|]. split; [exact Ef'|exact SE].
  Qed.
End TxnBytes.
