(* Lsm/IterPathAbs.v — the byte-level DB iterator against the L1 abstraction:
   (1) in a well-formed L1 state no internal key is stored twice (sorted components, the level-0 group's
       uniqueness, disjoint tables of a sorted level, and the newer-than chain between components);
   (2) hence a well-formed byte state (ReadPathProofs.wf_bstate) with a write buffer meets the hypotheses of
       the composition theorem (IterPathProofs.iter_wf) for DB / snapshot iterators;
   (3) the list the composition theorem speaks of - all stored pairs merged in the encoded order, parsed -
       is the list of entries of [abs st] in internal-key order (IterPath.lsm_entries);
   (4) db_iterator_correct_bytes. *)
From GL Require Import Base.OrderProofs Codec.IKeyProofs Codec.Table Lsm.Lsm Lsm.LsmProofs Lsm.ReadPath Lsm.ReadPathKey
  Lsm.ReadPathMem Lsm.ReadPathProofs Lsm.IterPath Lsm.IterPathLevel Lsm.IterPathProofs.
From GL Require Mem.ListLemmas.
From GL Require Import Iter.Merged Iter.MergedProofs Iter.DBIter Iter.LiveProofs.
From GL Require Lsm.ReorgProofs.
From Coq Require Import Lia.

Lemma nodup_concat {A} (ls : list (list A)) :
  Forall (@NoDup A) ls -> ForallOrdPairs (fun l1 l2 => forall x, In x l1 -> In x l2 -> False) ls -> NoDup (concat ls).
Proof.
  induction ls as [|l ls IH]; intros Hn Hd; [constructor|].
  inversion Hn as [|? ? Hl Hn']; subst. inversion Hd as [|? ? Hall Hd']; subst.
  cbn [concat]. apply ListLemmas.NoDup_app_intro; [exact Hl|apply IH; assumption|].
  intros x Hx Hc. apply in_concat in Hc as (l2 & Hl2 & Hx2). rewrite Forall_forall in Hall. exact (Hall l2 Hl2 x Hx Hx2).
Qed.

Section Uniq.
  Variable c : comparer.
  Hypothesis ok : comparer_ok c.
  Variable p : kparams.
  Hypothesis pok : kparams_ok p.

  Local Notation ssorted := (ssorted c).
  Local Notation kinds_ok := (kinds_ok p).

  Lemma kind_lt_256 e : (e_kind e <= keyTypeSeek p)%N -> (e_kind e < 256)%N.
  Proof. destruct pok as (_ & _ & _ & H & _). lia. Qed.

  (* equal internal keys: equal user key and sequence number *)
  Lemma ikey_eq_keyseq a b : (e_kind a <= keyTypeSeek p)%N -> (e_kind b <= keyTypeSeek p)%N ->
    e_ikey a = e_ikey b -> e_uk a = e_uk b /\ e_seq a = e_seq b.
  Proof.
    intros Ha Hb E. apply kind_lt_256 in Ha, Hb. unfold e_ikey, pack in E. injection E as E1 E2. split; [exact E1|]. nia.
  Qed.

  Lemma ssorted_nodup l : ssorted l -> NoDup (map e_ikey l).
  Proof.
    induction l as [|a l IH]; intros H; [constructor|]. destruct H as [Hall Hs]. cbn [map]. constructor; [|apply IH; exact Hs].
    intros Hin. apply in_map_iff in Hin as (b & E & Hb). rewrite Forall_forall in Hall. specialize (Hall b Hb).
    unfold ecmp in Hall. rewrite E in Hall. exact (icmp_irrefl c ok _ Hall).
  Qed.

  Lemma uniq_nodup l : kinds_ok l -> uniq l -> NoDup (map e_ikey l).
  Proof.
    unfold uniq. induction l as [|a l IH]; intros Hk H; [constructor|]. cbn [map] in *.
    inversion Hk as [|? ? Ka Hk']; subst. apply NoDup_cons_iff in H as [Hn H]. constructor; [|apply IH; assumption].
    intros Hin. apply Hn. apply in_map_iff in Hin as (b & E & Hb). apply in_map_iff. exists b. split; [|exact Hb].
    unfold kinds_ok in Hk'. rewrite Forall_forall in Hk'.
    destruct (ikey_eq_keyseq b a (Hk' b Hb) Ka E) as [E1 E2]. unfold keyseq. rewrite E1, E2. reflexivity.
  Qed.

  Lemma tables_kinds ts : tables_ok c p ts -> kinds_ok (level_entries ts).
  Proof.
    intros H. unfold kinds_ok, LsmProofs.kinds_ok, level_entries. apply Forall_forall. intros e He.
    apply in_concat in He as (l & Hl & He). apply in_map_iff in Hl as (t & <- & Ht).
    unfold tables_ok in H. rewrite Forall_forall in H. destruct (H t Ht) as [_ Hk].
    unfold LsmProofs.kinds_ok in Hk. rewrite Forall_forall in Hk. apply Hk. exact He.
  Qed.

  Lemma level_nodup ts : LsmProofs.level_ok c p ts -> NoDup (map e_ikey (level_entries ts)).
  Proof.
    intros [Ht Hls]. unfold level_entries. induction ts as [|t ts IH]; [constructor|].
    inversion Ht as [|? ? [Hs Hk] Ht']; subst. destruct Hls as [Hsep Hls]. cbn [map concat]. rewrite map_app.
    apply ListLemmas.NoDup_app_intro; [apply ssorted_nodup; exact Hs|apply IH; assumption|].
    intros k Hx Hy. apply in_map_iff in Hx as (x & <- & Hx). apply in_map_iff in Hy as (y & E & Hy).
    apply in_concat in Hy as (l & Hl & Hy). apply in_map_iff in Hl as (t' & <- & Ht'').
    rewrite Forall_forall in Hsep. pose proof (Hsep t' Ht'' x y Hx Hy) as L.
    assert (Eu : e_uk y = e_uk x) by (unfold e_ikey in E; injection E as E1 _; exact E1).
    rewrite Eu, (cmp_refl c ok) in L. discriminate.
  Qed.

  Lemma comp_kinds st l : wf_state c p st -> In l (comps st) -> kinds_ok l.
  Proof.
    intros [[_ Hm] [_ Hf] [Ha _] [H0 _] Hd _] Hl. unfold comps in Hl.
    destruct Hl as [<-|[<-|[<-|Hl]]]; [exact Hm|exact Hf|apply tables_kinds; exact Ha|].
    apply in_map_iff in Hl as (ts & <- & Hts). apply tables_kinds.
    destruct (st_levels st) as [|l0 rest]; [destruct Hts|]. cbn [hd tl] in *.
    destruct Hts as [<-|Hts]; [exact H0|]. rewrite Forall_forall in Hd. apply (Hd ts Hts).
  Qed.

  (* a newer component shares no internal key with an older one *)
  Lemma chain_disjoint cs : chain_newer cs -> Forall kinds_ok cs ->
    ForallOrdPairs (fun l1 l2 => forall k, In k l1 -> In k l2 -> False) (map (map e_ikey) cs).
  Proof.
    induction cs as [|l1 cs IH]; intros Hch Hk; [constructor|]. destruct Hch as [Hall Hch].
    inversion Hk as [|? ? K1 Hk']; subst. cbn [map]. constructor; [|apply IH; assumption].
    apply Forall_map. rewrite Forall_forall in Hall, Hk'. apply Forall_forall. intros l2 Hl2 k H1 H2.
    apply in_map_iff in H1 as (a & <- & Ha). apply in_map_iff in H2 as (b & Eb & Hb).
    pose proof (Hk' l2 Hl2) as K2. unfold kinds_ok, LsmProofs.kinds_ok in K1, K2. rewrite Forall_forall in K1, K2.
    destruct (ikey_eq_keyseq b a (K2 b Hb) (K1 a Ha) Eb) as [E1 E2].
    pose proof (Hall l2 Hl2 a b Ha Hb (eq_sym E1)) as L. lia.
  Qed.

  (* (1) in a well-formed L1 state no internal key is stored twice *)
  Theorem wf_state_ikeys_nodup st : wf_state c p st -> NoDup (map e_ikey (all_entries st)).
  Proof.
    intros W. rewrite (all_entries_comps st), concat_map.
    apply nodup_concat.
    - apply Forall_map. apply Forall_forall. intros l Hl.
      pose proof W as [[Hm _] [Hf _] [Ha Ha2] [H0 H02] Hd _]. unfold comps in Hl.
      destruct Hl as [<-|[<-|[<-|Hl]]]; [apply ssorted_nodup; exact Hm|apply ssorted_nodup; exact Hf| |].
      + apply uniq_nodup; [apply tables_kinds; exact Ha|exact Ha2].
      + apply in_map_iff in Hl as (ts & <- & Hts).
        destruct (st_levels st) as [|l0 rest]; [destruct Hts|]. cbn [hd tl] in *.
        destruct Hts as [<-|Hts]; [apply uniq_nodup; [apply tables_kinds; exact H0|exact H02]|].
        rewrite Forall_forall in Hd. apply level_nodup. apply (Hd ts Hts).
    - apply chain_disjoint; [exact (wf_chain c p st W)|].
      apply Forall_forall. intros l Hl. exact (comp_kinds st l W Hl).
  Qed.
End Uniq.

Section Abs.
  Variable c : comparer.
  Hypothesis ok : comparer_ok c.
  Variable p : kparams.
  Hypothesis dpok : dbparams_ok p.
  Variable mp : MemDB.mparams.
  Hypothesis mpok : MemDB.mparams_ok mp.
  Variable tp : tparams.
  Variable crc : bytes -> N.
  Variable decompress : bytes -> option bytes.
  Variable fname : option bytes.
  Variable ufc : bytes -> N -> bytes -> bool.
  Variable verify : bool.
  Variable ri : N.
  Variable strict : bool.

  Local Notation ic := (ibc c).
  Local Notation pok := (proj1 dpok).
  Local Notation okb := (tfile_okb c p tp crc decompress fname ufc verify ri).
  Local Notation pairs := (tf_pairs c tp crc decompress fname ufc verify ri).
  Local Notation atab := (abs_table c tp crc decompress fname ufc verify ri).
  Local Notation absS := (abs c mp tp crc decompress fname ufc verify ri).
  Local Notation wfb := (wf_bstate c p mp tp crc decompress fname ufc verify ri).
  Local Notation clists := (child_lists c mp tp crc decompress fname ufc verify ri None []).
  Local Notation iwf := (iter_wf c p mp tp crc decompress fname ufc verify ri None []).

  Lemma level_list_concat (rest : list (list tfile)) :
    concat (flat_map (level_list c tp crc decompress fname ufc verify ri) rest) =
    concat (map (fun ts => concat (map pairs ts)) rest).
  Proof.
    induction rest as [|ts rest IH]; [reflexivity|]. cbn [flat_map map concat]. rewrite concat_app, IH. f_equal.
    destruct ts as [|f ts]; [reflexivity|]. unfold level_list, lv_pairs. cbn [concat]. apply app_nil_r.
  Qed.

  Lemma table_lists_concat lvls :
    concat (table_lists c tp crc decompress fname ufc verify ri lvls) = concat (map (fun ts => concat (map pairs ts)) lvls).
  Proof.
    destruct lvls as [|l0 rest]; [reflexivity|]. unfold table_lists. rewrite concat_app, level_list_concat. reflexivity.
  Qed.

  Lemma table_entries_concat (lvls : list (list tfile)) :
    concat (map t_entries (concat (map (map atab) lvls))) =
    map entry_of (concat (map (fun ts => concat (map pairs ts)) lvls)).
  Proof.
    induction lvls as [|ts lvls IH]; [reflexivity|]. cbn [map concat]. rewrite map_app, concat_app, map_app, IH. f_equal.
    clear IH. induction ts as [|f ts IH]; [reflexivity|]. cbn [map concat]. rewrite map_app, IH. reflexivity.
  Qed.

  Lemma opt_mem_entries o : map entry_of (concat (map (mem_pairs mp) (opt_list o))) = mem_entries mp o.
  Proof. destruct o as [d|]; cbn; [rewrite app_nil_r|]; reflexivity. Qed.

  Lemma entries_of_children st : map entry_of (concat (clists st)) = all_entries (absS st).
  Proof.
    unfold child_lists, all_entries, all_tables, abs. cbn [st_mem st_frozen st_aux st_levels map app opt_list concat].
    rewrite !concat_app, !map_app, !opt_mem_entries, table_lists_concat, <- table_entries_concat. reflexivity.
  Qed.

  (* the decoded key of a pair, as a function of the encoded key alone *)
  Definition hkey (b : bytes) : ikey :=
    match ik_dec b with
    | Some k => {| uk := uk k; num := pack (ik_seq k) (ik_kind k) |}
    | None => {| uk := b; num := pack 0 0 |}
    end.

  Lemma e_ikey_hkey x : e_ikey (entry_of x) = hkey (fst x).
  Proof. unfold entry_of, hkey, e_ikey. destruct (ik_dec (fst x)); reflexivity. Qed.

  (* (2) a well-formed byte state with a write buffer, with additional buffer and tables that are well-formed and make up a
     well-formed L1 state L with it, meets the hypotheses of the composition theorem *)
  Lemma iter_wf_intro auxm auxt st L :
    wfb st -> bs_mem st <> None -> (forall d, auxm = Some d -> mem_ok c p mp d) -> Forall (fun f => okb f = true) auxt ->
    wf_state c p L -> map entry_of (concat (child_lists c mp tp crc decompress fname ufc verify ri auxm auxt st)) = all_entries L ->
    iter_wf c p mp tp crc decompress fname ufc verify ri auxm auxt st.
  Proof.
    intros [Hm Hf Ht Ha] Ho Hxm Hxt WL EC. constructor; try assumption.
    - pose proof (wf_deep c p _ Ha) as Hd. unfold abs in Hd. cbn [st_levels] in Hd.
      destruct (bs_levels st) as [|l0 rest]; [constructor|]. cbn [map tl] in *.
      clear Ht. induction rest as [|ts rest IH]; [constructor|]. cbn [map] in Hd. inversion Hd as [|? ? [_ Hls] Hd']; subst.
      constructor; [exact Hls|apply IH; exact Hd'].
    - apply (NoDup_map_inv hkey). rewrite map_map.
      pose proof (wf_state_ikeys_nodup c ok p pok L WL) as Hn.
      rewrite <- EC, map_map in Hn.
      erewrite map_ext; [exact Hn|]. intros x. symmetry. apply e_ikey_hkey.
  Qed.

  Theorem wf_bstate_iter_wf st : wfb st -> bs_mem st <> None -> iwf st.
  Proof.
    intros W Ho. apply (iter_wf_intro None [] st (absS st) W Ho); [discriminate|constructor| |apply entries_of_children].
    exact (wb_abs _ _ _ _ _ _ _ _ _ _ _ W).
  Qed.

  (* (3) the list of the composition theorem is the list of entries of the abstraction *)
  Lemma dec_entry_kv x : key_okb p (fst x) = true -> dec_entry x = entry_kv (entry_of x).
  Proof.
    intros H. destruct (key_okb_dec p _ H) as (k & D & _). unfold dec_entry, entry_kv.
    rewrite (e_ikey_entry_of x k D), D, (entry_of_dec x k D). reflexivity.
  Qed.

  Lemma db_entries_lsm auxm auxt st L :
    iter_wf c p mp tp crc decompress fname ufc verify ri auxm auxt st -> wf_state c p L ->
    map entry_of (concat (child_lists c mp tp crc decompress fname ufc verify ri auxm auxt st)) = all_entries L ->
    db_entries c mp tp crc decompress fname ufc verify ri auxm auxt st = lsm_entries c L.
  Proof.
    intros IW WL EC.
    pose proof (all_pairs_keys c ok p dpok mp mpok tp crc decompress fname ufc verify ri strict auxm auxt st IW) as Hk.
    pose proof (all_pairs_sorted c ok p mp tp crc decompress fname ufc verify ri auxm auxt st IW) as Hs.
    unfold keys_okl in Hk. rewrite Forall_forall in Hk.
    apply (sorted_kv_ext (icmp c) (icmp_ord_ok c ok)).
    - unfold db_entries. apply (dec_sorted c p); [apply Forall_forall|]; assumption.
    - unfold lsm_entries. apply (merge_sorted ikey bytes (icmp c) (icmp_ord_ok c ok)).
      cbn [concat]. rewrite app_nil_r, map_map. cbn [entry_kv fst]. exact (wf_state_ikeys_nodup c ok p pok L WL).
    - intros x. unfold db_entries, lsm_entries, merge_lists. rewrite (fold_insert_in ikey bytes (icmp c)).
      cbn [concat]. rewrite app_nil_r, <- EC, map_map. rewrite !in_map_iff.
      split; intros (y & E & Hy); exists y; rewrite <- E.
      + apply (all_pairs_in c mp tp crc decompress fname ufc verify ri) in Hy.
        split; [|exact Hy]. symmetry. apply dec_entry_kv. apply Hk.
        apply (all_pairs_in c mp tp crc decompress fname ufc verify ri). exact Hy.
      + apply (all_pairs_in c mp tp crc decompress fname ufc verify ri) in Hy.
        split; [|exact Hy]. apply dec_entry_kv. apply Hk. exact Hy.
  Qed.

  Theorem db_entries_abs st : wfb st -> bs_mem st <> None ->
    db_entries c mp tp crc decompress fname ufc verify ri None [] st = lsm_entries c (absS st).
  Proof.
    intros W Ho.
    exact (db_entries_lsm None [] st (absS st) (wf_bstate_iter_wf st W Ho) (wb_abs _ _ _ _ _ _ _ _ _ _ _ W) (entries_of_children st)).
  Qed.

  (* (4) DB.NewIterator / Snapshot.NewIterator on bytes = the cursor over the live pairs of the abstraction *)
  Theorem db_iterator_correct_bytes st seq slice fuel ms :
    wfb st -> bs_mem st <> None -> (seq <= keyMaxSeq p)%N -> range_wf slice -> Forall umove_wf ms ->
    length (all_entries (absS st)) < fuel ->
    dbi_run c p mp tp crc decompress fname ufc verify strict fuel None [] st seq slice ms =
    Some (run_cursor (cmp c) (lsm_view c p seq slice (absS st)) ms).
  Proof.
    intros W Ho Hseq Hr Hms Hfuel. unfold lsm_view. rewrite <- (db_entries_abs st W Ho).
    apply (db_iterator_bytes_gen c ok p dpok mp mpok tp crc decompress fname ufc verify ri strict None [] st seq slice fuel ms
             (wf_bstate_iter_wf st W Ho) Hseq Hr Hms).
    rewrite <- (map_length entry_of), entries_of_children. exact Hfuel.
  Qed.
End Abs.

(* A pure L1 statement: the pairs an iterator at sequence number s must walk (live_pairs of the entries of
   the state in internal-key order) are exactly the (key, value) for which the read path lsm_get - what
   DB.Get / Snapshot.Get compute (property C01) - finds that value.  Needs, beyond wf_state: no two stored
   entries share user key AND sequence number (each sequence number is given to one write), kinds are
   deletion or value. *)
Section ViewGet.
  Variable c : comparer.
  Hypothesis ok : comparer_ok c.
  Variable p : kparams.
  Hypothesis pok : kparams_ok p.

  Lemma find_sorted_min {K V} (f : K -> K -> comparison) (g : K * V -> bool) : forall (l : list (K * V)) e,
    sorted_kv f l -> find g l = Some e -> In e l /\ g e = true /\ forall e', In e' l -> g e' = true -> e' = e \/ f (fst e) (fst e') = Lt.
  Proof.
    induction l as [|x l IH]; intros e Hs Hf; [discriminate|]. cbn [find] in Hf.
    apply StronglySorted_inv in Hs as [Hs Hall]. destruct (g x) eqn:Eg.
    - injection Hf as <-. split; [left; reflexivity|]. split; [exact Eg|].
      intros e' [<-|He'] _; [left; reflexivity|right]. rewrite Forall_forall in Hall. apply (Hall e' He').
    - destruct (IH e Hs Hf) as (H1 & H2 & H3). split; [right; exact H1|]. split; [exact H2|].
      intros e' [<-|He'] Hg; [congruence|apply H3; assumption].
  Qed.

  Variable st : lstate.
  Hypothesis W : wf_state c p st.
  Hypothesis Huniq : uniq (all_entries st).
  Hypothesis Hkinds : Forall (fun e => e_kind e = keyTypeDel p \/ e_kind e = keyTypeVal p) (all_entries st).

  Local Notation AE := (all_entries st).
  Local Notation L := (lsm_entries c st).

  Lemma kind_small e : In e AE -> (e_kind e < 256)%N.
  Proof.
    intros He. rewrite Forall_forall in Hkinds. destruct pok as (H1 & H2 & _ & H4 & _).
    destruct (Hkinds e He) as [-> | ->]; lia.
  Qed.

  Lemma L_sorted : sorted_kv (icmp c) L.
  Proof.
    unfold lsm_entries. apply (merge_sorted ikey bytes (icmp c) (icmp_ord_ok c ok)).
    cbn [concat]. rewrite app_nil_r, map_map. cbn [entry_kv fst]. exact (wf_state_ikeys_nodup c ok p pok st W).
  Qed.

  Lemma L_in x : In x L <-> exists a, In a AE /\ x = entry_kv a.
  Proof.
    unfold lsm_entries, merge_lists. rewrite (fold_insert_in ikey bytes (icmp c)). cbn [concat]. rewrite app_nil_r, in_map_iff.
    split; intros (a & H1 & H2); exists a; auto.
  Qed.

  Lemma kv_seq a : In a AE -> ik_seq (fst (entry_kv a)) = e_seq a /\ ik_kind (fst (entry_kv a)) = e_kind a.
  Proof.
    intros Ha. pose proof (kind_small a Ha) as Hk. unfold entry_kv, e_ikey, ik_seq, ik_kind, pack. cbn [fst num].
    split.
    - rewrite N.div_add_l by discriminate. rewrite (N.div_small _ _ Hk). lia.
    - rewrite N.add_comm, N.mod_add by discriminate. apply N.mod_small. exact Hk.
  Qed.

  (* the predicate of newest_visible on the image of a stored entry is Lsm.vis *)
  Lemma nv_pred a u s : In a AE ->
    (visible s (entry_kv a) && match cmp c (uk (fst (entry_kv a))) u with Eq => true | _ => false end) = Lsm.vis c u s a.
  Proof.
    intros Ha. unfold visible, Lsm.vis. rewrite (proj1 (kv_seq a Ha)). cbn [entry_kv fst e_ikey uk].
    destruct (cmp c (e_uk a) u); [apply Bool.andb_true_r|apply Bool.andb_false_r|apply Bool.andb_false_r].
  Qed.

  (* the first visible entry of u in internal-key order is the visible entry with the largest sequence number *)
  Lemma first_is_newest u s e a : newest_visible c s L u = Some e -> newest c u s AE None = Some a -> e = entry_kv a.
  Proof.
    intros Hf Hn.
    destruct (find_sorted_min (icmp c) _ L e L_sorted Hf) as (He & Hg & Hmin).
    apply L_in in He as (a0 & Ha0 & ->).
    rewrite (nv_pred a0 u s Ha0) in Hg.
    destruct (newest_in c u s AE None a Hn) as [Hx|[Ha Hva]]; [discriminate|].
    destruct (ReorgProofs.newest_max_acc c u s AE None a Hn) as [Hmax _].
    pose proof (Hmax a0 Ha0 Hg) as Hle.
    assert (Hin : In (entry_kv a) L) by (apply L_in; exists a; auto).
    assert (Hga : (visible s (entry_kv a) && match cmp c (uk (fst (entry_kv a))) u with Eq => true | _ => false end) = true)
      by (rewrite (nv_pred a u s Ha); exact Hva).
    apply (vis_true c ok) in Hg as [Hu0 Hs0]. apply (vis_true c ok) in Hva as [Hu Hs].
    assert (Eseq : e_seq a0 = e_seq a).
    { destruct (Hmin (entry_kv a) Hin Hga) as [E|Hlt].
      - unfold entry_kv, e_ikey in E. injection E as _ E1 _.
        unfold pack in E1. pose proof (kind_small a Ha). pose proof (kind_small a0 Ha0). nia.
      - unfold entry_kv, e_ikey in Hlt. cbn [fst] in Hlt. rewrite Hu0, Hu in Hlt.
        apply (icmp_same_ukey c ok) in Hlt. unfold pack in Hlt.
        pose proof (kind_small a Ha). pose proof (kind_small a0 Ha0). nia. }
    assert (Ea : a0 = a).
    { unfold uniq in Huniq.
      assert (Hk : keyseq a0 = keyseq a) by (unfold keyseq; rewrite Hu0, Hu, Eseq; reflexivity).
      clear -Huniq Ha0 Ha Hk. induction (all_entries st) as [|x l IH]; [destruct Ha|].
      cbn [map] in Huniq. apply NoDup_cons_iff in Huniq as [Hn Hnd].
      destruct Ha0 as [->|Ha0]; destruct Ha as [->|Ha]; try reflexivity.
      - exfalso. apply Hn. rewrite Hk. apply in_map. exact Ha.
      - exfalso. apply Hn. rewrite <- Hk. apply in_map. exact Ha0.
      - apply IH; assumption. }
    rewrite Ea. reflexivity.
  Qed.

  Theorem view_agrees_with_get s u v :
    In (u, v) (live_pairs c p s L) <-> lsm_get c p st u s = GFound v.
  Proof.
    rewrite (live_pairs_spec c ok p s L L_sorted u v), (get_correct c ok p pok st u s W).
    split.
    - intros (e & Hf & Hv & ->).
      destruct (find_sorted_min (icmp c) _ L e L_sorted Hf) as (He & Hg & _).
      apply L_in in He as (a0 & Ha0 & E0). subst e. rewrite (nv_pred a0 u s Ha0) in Hg.
      destruct (newest c u s AE None) as [a|] eqn:En; [|rewrite (ReorgProofs.newest_none_all c u s AE En a0 Ha0) in Hg; discriminate].
      pose proof (first_is_newest u s _ a Hf En) as E.
      destruct (newest_in c u s AE None a En) as [Hx|[Ha _]]; [discriminate|].
      cbn [group_res]. unfold res_of. unfold is_val in Hv. rewrite E in Hv. rewrite (proj2 (kv_seq a Ha)) in Hv.
      apply N.eqb_eq in Hv. rewrite Hv.
      destruct pok as (_ & _ & Hne & _). replace (keyTypeVal p =? keyTypeDel p)%N with false by (symmetry; apply N.eqb_neq; congruence).
      rewrite E. reflexivity.
    - intros Hg. destruct (newest c u s AE None) as [a|] eqn:En; [|discriminate].
      cbn [group_res] in Hg. unfold res_of in Hg. destruct (e_kind a =? keyTypeDel p)%N eqn:Ek; [discriminate|].
      injection Hg as <-.
      destruct (newest_in c u s AE None a En) as [Hx|[Ha Hva]]; [discriminate|].
      assert (Hval : e_kind a = keyTypeVal p).
      { rewrite Forall_forall in Hkinds. destruct (Hkinds a Ha) as [E|E]; [|exact E]. apply N.eqb_neq in Ek. congruence. }
      destruct (newest_visible c s L u) as [e|] eqn:Ef.
      + pose proof (first_is_newest u s e a Ef En) as ->. exists (entry_kv a). split; [reflexivity|]. split; [|reflexivity].
        unfold is_val. rewrite (proj2 (kv_seq a Ha)), Hval. apply N.eqb_refl.
      + exfalso. unfold newest_visible in Ef.
        assert (Hin : In (entry_kv a) L) by (apply L_in; exists a; auto).
        pose proof (List.find_none _ _ Ef _ Hin) as Hf. cbv beta in Hf. rewrite (nv_pred a u s Ha) in Hf. congruence.
  Qed.
End ViewGet.
