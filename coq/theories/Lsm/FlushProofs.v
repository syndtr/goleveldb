(* Lsm/FlushProofs.v — the step lemma of property C06 for a flush: version.pickMemdbLevel (model Lsm/Pick.v) returns a
   level such that no table of a shallower level and, unless it is level 0, no table of that level overlaps the new
   table's user-key range; installing the new table there (finish, batch insert) keeps the invariant WfLsm.wf_lsm —
   including the cross-level clause: what lies above the new table shares no user key with it, what lies below is older. *)
From GL Require Import Codec.IKeyProofs Lsm.LsmProofs Lsm.Pick Lsm.PickBase Lsm.WfLsm Lsm.FinishProofs
  Lsm.InsertProofs Lsm.StepProofs.
From GL Require Mem.ListLemmas.
From Coq Require Import Arith Lia Permutation.

Local Open Scope nat_scope.

Section Flush.
  Variable c : comparer.
  Hypothesis ok : comparer_ok c.
  Variable p : kparams.
  Hypothesis pok : kparams_ok p.
  Variable sz : table -> N.

  Notation wf_lsm := (wf_lsm c p).
  Notation tbl_ok := (tbl_ok c p).
  Notation umin_of := Pick.umin_of.
  Notation umax_of := Pick.umax_of.
  Notation lt := (Order.lt c).
  Notation le := (Order.le c).

  (* tFiles.overlaps, the unsorted variant (level 0): false means no table of the level overlaps *)
  Lemma files_overlaps_unsorted tf a b : files_overlaps c p tf a b true = false ->
    forall s, In s tf -> t_overlaps c s a b = false.
  Proof.
    unfold files_overlaps. intros H s Hs. destruct (t_overlaps c s a b) eqn:E; [|reflexivity].
    assert (existsb (fun t => t_overlaps c t a b) tf = true) by (apply existsb_exists; exists s; split; assumption).
    congruence.
  Qed.

  Section SortedLevel.
    Variable tf : list table.
    Hypothesis Hok : forall t, In t tf -> tbl_ok t.
    Hypothesis Hs : level_sorted c tf.
    Hypothesis Hseq : forall t, In t tf -> (e_seq (t_hi t) <= keyMaxSeq p)%N.

    Let Hb : bsorted c tf := level_sorted_bsorted c p tf Hok Hs.

    Lemma search_max_idx_below k j : j < search_max_idx c tf k -> icmp c (imax_of (tnth tf j)) k = Lt.
    Proof.
      unfold search_max_idx.
      set (f := fun i => match icmp c (imax_of (tnth tf i)) k with Lt => false | _ => true end).
      assert (Hm : monotone f 0 (length tf)).
      { apply (monotone_not_below c ok (fun i => imax_of (tnth tf i))). intros a b Hab Hbn.
        apply icmp_ukey_lt. unfold imax_of. cbn [e_ikey uk].
        eapply (OrderProofs.lt_le_trans c ok); [apply (Hb a b); lia|].
        apply (tbl_valid c ok p). apply Hok. apply nth_In. exact Hbn. }
      destruct (sort_search_spec (length tf) f Hm) as [_ [K2 _]]. intros Hj. specialize (K2 j Hj). unfold f in K2.
      destruct (icmp c (imax_of (tnth tf j)) k); congruence.
    Qed.

    (* tFiles.overlaps (the sorted variant) answering false means no table of the level overlaps *)
    Lemma files_overlaps_sorted umin umax : files_overlaps c p tf umin umax false = false ->
      forall s, In s tf -> t_overlaps c s umin umax = false.
    Proof.
      unfold files_overlaps.
      set (i := match umin with Some (b :: m') => search_max_idx c tf (probe p (b :: m') (keyMaxSeq p)) | _ => 0 end).
      assert (Below : forall j, j < i -> j < length tf -> t_after c (tnth tf j) umin = true).
      { intros j Hj Hn. destruct umin as [[|b m']|]; try (unfold i in Hj; lia). unfold i in Hj.
        pose proof (search_max_idx_below _ j Hj) as L. unfold imax_of in L.
        assert (Tj : tbl_ok (tnth tf j)) by (apply Hok; apply nth_In; exact Hn).
        destruct Tj as [[_ Kj] Nj].
        assert (Kh : (e_kind (t_hi (tnth tf j)) <= keyTypeSeek p)%N).
        { apply (kinds_ok_in p _ _ Kj). apply t_hi_in. exact Nj. }
        apply (pbelow_probe c p pok _ _ _ Kh) in L. apply (t_after_some c ok).
        destruct L as [L|[_ L]]; [exact L|]. pose proof (Hseq (tnth tf j) ltac:(apply nth_In; exact Hn)). lia. }
      fold i. intros H s Hin. apply (in_nth_ex no_table) in Hin as [j [Hj Ej]]. fold (tnth tf j) in Ej.
      unfold t_overlaps. destruct (Nat.lt_ge_cases j i) as [Q|Q].
      - rewrite <- Ej, (Below j Q Hj). reflexivity.
      - destruct (Nat.leb (length tf) i) eqn:L; [apply Nat.leb_le in L; lia|]. apply Nat.leb_gt in L.
        apply Bool.negb_false_iff in H. destruct umax as [M|]; [|discriminate].
        apply (t_before_some c) in H.
        assert (B : t_before c s (Some M) = true).
        { apply (t_before_some c). rewrite <- Ej. eapply (OrderProofs.lt_le_trans c ok); [exact H|].
          apply (bsorted_umin_mono c ok p tf i j Hok Hb Q Hj). }
        rewrite B. apply Bool.andb_false_r.
    Qed.
  End SortedLevel.

  Variable v : list (list table).
  Hypothesis W : wf_lsm v.
  Hypothesis Vseq : forall i t, In t (lv v i) -> (e_seq (t_hi t) <= keyMaxSeq p)%N.

  Variable m M : bytes.
  Variable gp_limit : nat -> N.
  Variable maxLevel : nat.

  Definition no_ov (i : nat) : Prop := forall s, In s (lv v i) -> t_overlaps c s (Some m) (Some M) = false.

  Lemma no_ov_beyond i : length v <= i -> no_ov i.
  Proof. intros H s Hs. unfold lv in Hs. rewrite (nth_overflow v [] H) in Hs. destruct Hs. Qed.

  Lemma pick_loop_spec fuel : forall level, (forall i, i <= level -> no_ov i) ->
    forall i, i <= pick_loop c p sz v (Some m) (Some M) gp_limit maxLevel fuel level -> no_ov i.
  Proof.
    induction fuel as [|fu IH]; intros level Inv i Hi; cbn [pick_loop] in Hi; [apply Inv; exact Hi|].
    destruct (Nat.leb maxLevel level); [apply Inv; exact Hi|].
    destruct (Nat.leb (length v) (S level)) eqn:E1.
    - apply Nat.leb_le in E1. destruct (Nat.le_gt_cases i level) as [Q|Q]; [apply Inv; exact Q|]. apply no_ov_beyond. lia.
    - destruct (files_overlaps c p (nth (S level) v []) (Some m) (Some M) false) eqn:E2; [apply Inv; exact Hi|].
      match type of Hi with context [if ?b then level else _] => destruct b end; [apply Inv; exact Hi|].
      apply (IH (S level)); [|exact Hi]. intros j Hj.
      destruct (Nat.eq_dec j (S level)) as [->|Hne]; [|apply Inv; lia].
      intros s Hs. apply (files_overlaps_sorted (lv v (S level))); try assumption.
      + apply (wl_tbl c p v W).
      + apply (wl_deep c p v W). lia.
      + apply Vseq.
  Qed.

  (* the level chosen for a flushed table with user-key range [m, M] *)
  Definition pick_ok_level (k : nat) : Prop := (forall i, i < k -> no_ov i) /\ (0 < k -> no_ov k).

  Theorem pick_memdb_level_spec : pick_ok_level (pick_memdb_level c p sz v (Some m) (Some M) gp_limit maxLevel).
  Proof.
    unfold pick_memdb_level. destruct (Nat.ltb 0 maxLevel); [|split; intros; lia].
    destruct v as [|l0 rest] eqn:Ev.
    - split; intros; apply no_ov_beyond; rewrite Ev; cbn; lia.
    - rewrite <- Ev in *. destruct (files_overlaps c p l0 (Some m) (Some M) true) eqn:E0; [split; intros; lia|].
      assert (Inv : forall i, i <= 0 -> no_ov i).
      { intros i Hi. assert (i = 0) by lia. subst i. intros s Hs. apply (files_overlaps_unsorted l0 _ _ E0).
        unfold lv in Hs. rewrite Ev in Hs. exact Hs. }
      pose proof (pick_loop_spec maxLevel 0 Inv) as P. split; [intros i Hi; apply P; lia|intros _; apply P; lia].
  Qed.

  Section Install.
    Variable t : table.
    Variable k : nat.
    Hypothesis Tt : tbl_ok t.
    Hypothesis Ut : uniq (t_entries t).
    (* the flushed entries are newer than every stored entry of the same user key *)
    Hypothesis Nt : forall i x y, In x (t_entries t) -> In y (LE (lv v i)) -> e_uk x = e_uk y -> (e_seq y < e_seq x)%N.
    Hypothesis Fresh : forall i s, In s (lv v i) -> t_num s <> t_num t.
    Hypothesis Range : m = umin_of t /\ M = umax_of t.
    Hypothesis Kok : pick_ok_level k.

    Let ed := {| ed_del := []; ed_add := [(k, t)] |}.
    Let base := lv v k.
    Let idx := match k with
               | O => search_num_less base (t_num t)
               | S _ => search_min_idx c base (imax_of t)
               end.
    Definition flush_level (l : nat) : list table :=
      if Nat.eqb l k then firstn idx base ++ [t] ++ skipn idx base else lv v l.

    Lemma flush_level_fn l : level_fn c true v ed l = POk (flush_level l).
    Proof.
      unfold level_fn, flush_level, ed, adds_at, dels_at. cbn [ed_add ed_del filter fst map snd].
      rewrite Nat.eqb_sym. destruct (Nat.eqb l k) eqn:Q.
      - apply Nat.eqb_eq in Q. subst l. cbn [map snd]. fold (lv v k). fold base.
        assert (D : forall b : list table, match b with [] => @nil N | _ :: _ => [] end = []) by (intros b; destruct b; reflexivity).
        rewrite D.
        assert (F : filter (fun s => negb (memN (t_num s) []) && negb (memN (t_num s) (nums_of [t]))) base = base).
        { apply ListLemmas.filter_all. intros s Hs. cbn [memN existsb negb andb nums_of map].
          rewrite Bool.orb_false_r. apply Bool.negb_true_iff. apply N.eqb_neq. apply (Fresh k s Hs). }
        destruct k as [|k'] eqn:Ek.
        + rewrite finish_level_adds_l0 by discriminate. cbv zeta. rewrite F. reflexivity.
        + rewrite finish_level_adds_deep by discriminate. cbv zeta. rewrite F. reflexivity.
      - cbn [map]. rewrite finish_level_no_adds. f_equal. apply ListLemmas.filter_all. intros s Hs.
        destruct (nth l v []); reflexivity.
    Qed.

    Lemma flush_in l s : In s (flush_level l) -> In s (lv v l) \/ (l = k /\ s = t).
    Proof.
      unfold flush_level. destruct (Nat.eqb l k) eqn:Q; [|left; assumption]. apply Nat.eqb_eq in Q. subst l.
      intros H. apply in_app_or in H as [H1|H1]; [left; apply (ListLemmas.in_firstn _ _ _ H1)|].
      apply in_app_or in H1 as [[E|[]]|H2]; [right; split; [reflexivity|symmetry; exact E]|left; apply (skipn_incl _ _ _ H2)].
    Qed.

    Lemma flush_entry l x : In x (LE (flush_level l)) -> In x (LE (lv v l)) \/ (l = k /\ In x (t_entries t)).
    Proof.
      intros H. apply LE_in in H as [s [Hs Hx]]. apply flush_in in Hs as [Hs|[-> ->]].
      - left. apply LE_in. exists s. split; assumption.
      - right. split; [reflexivity|exact Hx].
    Qed.

    Lemma t_range x : In x (t_entries t) -> key_in c (e_uk x) (Some m) (Some M).
    Proof. destruct Range as [Em EM]. rewrite Em, EM. intros Hx. apply (tbl_bounds c ok p t x Tt Hx). Qed.

    (* a table that does not overlap the new table's range lies entirely on one side of it *)
    Lemma no_ov_sep i s : no_ov i -> In s (lv v i) -> sep c s (LE [t]).
    Proof.
      intros No Hs. specialize (No s Hs). pose proof (wl_tbl c p v W i s Hs) as Ts.
      assert (E : LE [t] = t_entries t) by (unfold LE; cbn; apply app_nil_r). rewrite E.
      destruct Range as [Em EM]. unfold t_overlaps in No.
      apply Bool.andb_false_iff in No as [No|No]; apply Bool.negb_false_iff in No.
      - left. apply (t_after_some c ok) in No. intros x y Hx Hy.
        destruct (tbl_bounds c ok p s x Ts Hx) as [_ Bx]. destruct (tbl_bounds c ok p t y Tt Hy) as [By _].
        eapply (OrderProofs.le_lt_trans c ok); [exact Bx|]. eapply (OrderProofs.lt_le_trans c ok); [exact No|].
        rewrite Em. exact By.
      - right. apply (t_before_some c) in No. intros y x Hy Hx.
        destruct (tbl_bounds c ok p s x Ts Hx) as [Bx _]. destruct (tbl_bounds c ok p t y Tt Hy) as [_ By].
        eapply (OrderProofs.le_lt_trans c ok); [exact By|]. rewrite <- EM.
        eapply (OrderProofs.lt_le_trans c ok); [exact No|exact Bx].
    Qed.

    Section NewVersion.
      Variable nv : list (list table).
      Hypothesis Hnv : forall l, lv nv l = flush_level l.

      Lemma fl_tbl l s : In s (lv nv l) -> tbl_ok s.
      Proof. rewrite Hnv. intros H. apply flush_in in H as [H|[_ ->]]; [apply (wl_tbl c p v W l s H)|exact Tt]. Qed.

      Lemma fl_uniq l : uniq (LE (lv nv l)).
      Proof.
        rewrite Hnv. unfold flush_level. destruct (Nat.eqb l k) eqn:Q; [|apply (wl_uniq c p v W)].
        assert (P : Permutation (LE [t] ++ LE base) (LE (firstn idx base ++ [t] ++ skipn idx base))).
        { rewrite !LE_app. rewrite <- (firstn_skipn idx base) at 1. rewrite LE_app. apply Permutation_app_swap_app. }
        unfold uniq. eapply Permutation_NoDup; [apply Permutation_map; exact P|]. apply uniq_app.
        assert (E : LE [t] = t_entries t) by (unfold LE; cbn; apply app_nil_r). rewrite E.
        split; [exact Ut|]. split; [apply (wl_uniq c p v W)|].
        intros x y Hx Hy Ek. unfold keyseq in Ek. injection Ek as Eu Es. pose proof (Nt k x y Hx Hy Eu). lia.
      Qed.

      Lemma fl_l0n : nums_sorted (lv nv 0).
      Proof.
        rewrite Hnv. unfold flush_level. destruct (Nat.eqb 0 k) eqn:Q; [|apply (wl_l0n c p v W)].
        apply Nat.eqb_eq in Q.
        assert (E : idx = search_num_less base (t_num t)) by (unfold idx; rewrite <- Q; reflexivity).
        rewrite E. apply insert_by_num; [unfold base; rewrite <- Q; apply (wl_l0n c p v W)|apply (Fresh k)].
      Qed.

      Lemma fl_deep l : 0 < l -> level_sorted c (lv nv l).
      Proof.
        intros Hl. rewrite Hnv. unfold flush_level. destruct (Nat.eqb l k) eqn:Q; [|apply (wl_deep c p v W); exact Hl].
        apply Nat.eqb_eq in Q. subst l.
        assert (E : idx = search_min_idx c base (imax_of t)).
        { destruct (Nat.lt_exists_pred 0 k Hl) as [k' [Ek _]]. unfold idx. rewrite Ek. reflexivity. }
        rewrite E.
        apply (insert_sorted c ok p base [t]).
        - apply (wl_tbl c p v W).
        - apply (wl_deep c p v W). exact Hl.
        - intros o [<-|[]]. exact Tt.
        - split; [apply Forall_nil|exact I].
        - exists t. split; [left; reflexivity|reflexivity].
        - intros s Hs. apply (no_ov_sep k s); [apply Kok; exact Hl|exact Hs].
      Qed.

      Lemma fl_chain i j : i < j -> newer_thanP (LE (lv nv i)) (LE (lv nv j)).
      Proof.
        intros Hij a b Ha Hb Eu. rewrite Hnv in Ha, Hb.
        apply flush_entry in Ha as [Ha|[Ei Ha]]; apply flush_entry in Hb as [Hb|[Ej Hb]].
        - apply (wl_chain c p v W i j Hij a b Ha Hb Eu).
        - (* a lies above the new table and shares a user key with it: impossible *)
          exfalso. subst j. apply LE_in in Ha as [s [Hs Ha]].
          assert (No : t_overlaps c s (Some m) (Some M) = false) by (apply (proj1 Kok i Hij); exact Hs).
          rewrite (overlaps_of_key c ok p s a _ _ (wl_tbl c p v W i s Hs) Ha) in No; [discriminate|].
          rewrite Eu. apply t_range. exact Hb.
        - apply (Nt j a b Ha Hb Eu).
        - lia.
      Qed.

      Lemma fl_nums i j s s' : In s (lv nv i) -> In s' (lv nv j) -> t_num s = t_num s' -> i = j /\ s = s'.
      Proof.
        rewrite !Hnv. intros Hs Hs' E. apply flush_in in Hs as [Hs|[-> ->]]; apply flush_in in Hs' as [Hs'|[-> ->]].
        - apply (wl_nums c p v W i j s s' Hs Hs' E).
        - exfalso. apply (Fresh i s Hs E).
        - exfalso. apply (Fresh j s' Hs' (eq_sym E)).
        - split; reflexivity.
      Qed.

      Lemma fl_wf : wf_lsm nv.
      Proof. constructor; [exact fl_tbl|exact fl_uniq|exact fl_l0n|exact fl_deep|exact fl_chain|exact fl_nums]. Qed.
    End NewVersion.

    Theorem install_step : exists nv, finish c true v ed = POk nv /\ wf_lsm nv.
    Proof.
      destruct (finish_levels c true v ed flush_level flush_level_fn) as [nv [E H]].
      exists nv. split; [exact E|apply (fl_wf nv H)].
    Qed.
  End Install.
End Flush.
