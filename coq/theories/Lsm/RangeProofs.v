(* Lsm/RangeProofs.v — the retry loop of DB.CompactRange (model Lsm/RangeCompact.v: compact_range) terminates and
   leaves every table overlapping the range in ONE level.
   Measure: wsum K (entries per level) = sum over levels l < K of (number of entries stored in level l) * (K - l), where
   K bounds the deepest level the loop can reach (max 1 (number of levels - 1): a pass compacts levels < m only, m <= K).
   Every table compaction of a pass removes a >= 1 entries from its source level l < m <= K and adds at most a to level
   l + 1: the measure drops by at least a.  A pass that compacted nothing ends the loop; so at most (measure) passes
   compact something.  (The number of TABLES is no measure: the builder may cut one input into many outputs.) *)
From GL Require Import Lsm.PickBase Lsm.ExpandProofs Lsm.WfLsm Lsm.ModelStep Lsm.C06Steps Lsm.RangeCompact
  Lsm.RangeStep.
From Coq Require Import Arith Lia.

Local Open Scope nat_scope.

(* every level from B on is empty *)
Definition levels_below (v : list (list table)) (B : nat) : Prop := forall l, B <= l -> lv v l = [].

Lemma levels_below_length v : levels_below v (length v).
Proof. intros l H. unfold lv. apply nth_overflow. exact H. Qed.

Lemma levels_below_mono v A B : levels_below v A -> A <= B -> levels_below v B.
Proof. intros H Q l Hl. apply H. lia. Qed.

Lemma get_set_ptr ptrs level k : get_ptr (set_ptr ptrs level k) level = Some k.
Proof.
  unfold get_ptr. revert ptrs; induction level as [|l IH]; intros ptrs; destruct ptrs as [|x r]; cbn [set_ptr nth]; try reflexivity; apply IH.
Qed.

Lemma get_set_ptr_other ptrs level k l : l <> level -> get_ptr (set_ptr ptrs level k) l = get_ptr ptrs l.
Proof.
  unfold get_ptr. revert ptrs l; induction level as [|lv IH]; intros ptrs l Hl; destruct ptrs as [|x r]; cbn [set_ptr].
  - destruct l as [|l]; [congruence|]. cbn [nth]. destruct l; reflexivity.
  - destruct l as [|l]; [congruence|reflexivity].
  - destruct l as [|l]; [reflexivity|]. cbn [nth]. rewrite IH by congruence. destruct l; reflexivity.
  - destruct l as [|l]; [reflexivity|]. cbn [nth]. apply IH. congruence.
Qed.

Section Range.
  Variable c : comparer.
  Hypothesis ok : comparer_ok c.
  Variable p : kparams.
  Hypothesis pok : kparams_ok p.
  Variable sz : table -> N.
  Variable o : copts.
  Variable bld : nat -> list (list table) -> compaction -> list table.
  (* minSeq of the k-th compaction *)
  Variable ms : nat -> N.

  Notation wf_lsm := (wf_lsm c p).

  (* what the theorems assume of the output oracle: for the compaction the model picker builds on a well-formed version
     from an admissible seed, the tables are chunks of the kept merged entries, cut only between different user keys,
     under pairwise different numbers no live table carries (C06_builder_cuts_ok: Builder.v's run delivers that) *)
  Definition bld_ok : Prop :=
    forall k v lvl seed cm, wf_lsm v -> seed_ok v lvl seed ->
      new_compaction c sz v lvl (o_exp_limit o lvl) seed = POk cm ->
      exists chunks nums, bld k v cm = mk_outputs nums chunks /\
        outputs_of c p cm (ms k) (skipn (lvl + 2) v) chunks /\ length nums = length chunks /\ fresh_nums v nums.

  Hypothesis B_ok : bld_ok.

  (* the relation between the versions before and after one table compaction of level lvl *)
  Definition step_rel (v : list (list table)) (lvl : nat) (nv : list (list table)) : Prop :=
    wf_lsm nv /\ exists a, 1 <= a /\ tl nv lvl + a = tl v lvl /\ tl nv (S lvl) <= tl v (S lvl) + a /\
      (forall l, l <> lvl -> l <> S lvl -> lv nv l = lv v l).

  Lemma step_rel_of_effect v lvl cm outs nv : c_level cm = lvl -> wf_lsm nv -> step_effect v cm outs nv -> step_rel v lvl nv.
  Proof.
    intros E Wn [a [H1 [H2 [H3 [H4 _]]]]]. rewrite E in *. split; [exact Wn|]. exists a. repeat split; assumption.
  Qed.

  Lemma step_rel_below v lvl nv B : step_rel v lvl nv -> levels_below v B -> S lvl < B -> levels_below nv B.
  Proof.
    intros [_ [a [_ [_ [_ H]]]]] Hb Q l Hl. rewrite H by lia. apply Hb. exact Hl.
  Qed.

  Lemma step_rel_wsum v lvl nv K : step_rel v lvl nv -> lvl < K -> wsum K (tl nv) + 1 <= wsum K (tl v).
  Proof.
    intros [_ [a [H0 [H1 [H2 H3]]]]] Q.
    pose proof (wsum_step K lvl (tl v) (tl nv) a Q H1 H2) as S. unfold tl at 1 2 in S.
    specialize (S ltac:(intros l Q1 Q2; rewrite H3 by assumption; reflexivity)). lia.
  Qed.

  Lemma step_rel_tsum v lvl nv K : step_rel v lvl nv -> tsum K (tl nv) <= tsum K (tl v).
  Proof.
    intros [_ [a [H0 [H1 [H2 H3]]]]].
    apply (tsum_step K lvl (tl v) (tl nv) a H1 H2). intros l Q1 Q2. unfold tl. rewrite H3 by assumption. reflexivity.
  Qed.

  (* DB.tableCompaction on a compaction built by the model picker *)
  Lemma table_compaction_spec st lvl seed cm noTrivial :
    wf_lsm (cp_v st) -> seed_ok (cp_v st) lvl seed ->
    new_compaction c sz (cp_v st) lvl (o_exp_limit o lvl) seed = POk cm ->
    exists st', table_compaction c sz o bld st cm noTrivial = POk st' /\ step_rel (cp_v st) lvl (cp_v st') /\
      cp_n st' = S (cp_n st) /\ cp_seek st' = None /\ cp_ptrs st' = set_ptr (cp_ptrs st) lvl (c_imax cm) /\
      exists outs, step_effect (cp_v st) cm outs (cp_v st') /\
        ((noTrivial = false /\ trivial sz cm (o_gp_limit o lvl) = true /\ outs = c_t0 cm) \/
         outs = bld (cp_n st) (cp_v st) cm).
  Proof.
    intros W Sk E. pose proof Sk as [S1 [S2 S3]].
    destruct (model_pick c ok p sz (cp_v st) W lvl (o_exp_limit o lvl) seed S1 S2 S3) as [cm' [E' Pk]].
    rewrite E in E'. injection E' as <-.
    pose proof (pk_level c (cp_v st) lvl seed cm Pk) as El.
    unfold table_compaction. rewrite El.
    destruct (negb noTrivial && trivial sz cm (o_gp_limit o lvl))%bool eqn:T.
    - apply andb_prop in T as [T1 T2]. destruct (trivial_shape sz cm _ T2) as [t [E0 E1]].
      destruct (model_move_levels c ok p sz (cp_v st) W lvl seed S1 S2 cm Pk t E0 E1) as [nv [F [Wn Ef]]].
      rewrite F. cbn [pbind]. eexists. split; [reflexivity|]. cbn [cp_v cp_n cp_seek cp_ptrs].
      split; [apply (step_rel_of_effect _ lvl cm (c_t0 cm) nv El Wn Ef)|]. repeat split.
      exists (c_t0 cm). split; [exact Ef|]. left. repeat split; [|exact T2].
      destruct noTrivial; [discriminate|reflexivity].
    - destruct (B_ok (cp_n st) (cp_v st) lvl seed cm W Sk E) as [chunks [nums [Eb [[C1 C2] [Hl [F1 F2]]]]]].
      rewrite Eb.
      destruct (model_build_levels c ok p pok sz (cp_v st) W lvl seed S1 S2 cm Pk (ms (cp_n st)) _ chunks nums C1 C2 Hl F1)
        as [nv [F [Wn Ef]]].
      { intros n i s Hn Hs Q. apply (F2 n i s Hn Hs Q). }
      rewrite F. cbn [pbind]. eexists. split; [reflexivity|]. cbn [cp_v cp_n cp_seek cp_ptrs].
      split; [apply (step_rel_of_effect _ lvl cm _ nv El Wn Ef)|]. repeat split.
      exists (mk_outputs nums chunks). split; [exact Ef|]. right. reflexivity.
  Qed.

  (* getCompactionRange: no compaction = no table of the level overlaps the range *)
  Lemma range_none_clear v lvl umin umax noLimit sl el : wf_lsm v ->
    compaction_range c sz v lvl umin umax noLimit sl el = POk None ->
    forall t, In t (lv v lvl) -> t_overlaps c t umin umax = false.
  Proof.
    intros W H t Ht. unfold compaction_range in H.
    destruct (Nat.leb (length v) lvl) eqn:Q.
    { apply Nat.leb_le in Q. unfold lv in Ht. rewrite nth_overflow in Ht by exact Q. destruct Ht. }
    assert (Hb : Nat.eqb lvl 0 = false -> bsorted c (nth lvl v [])).
    { intros Hq. apply Nat.eqb_neq in Hq. apply (level_sorted_bsorted c p); [apply (wl_tbl c p v W)|apply (wl_deep c p v W); lia]. }
    destruct (gov_spec c ok p (nth lvl v []) umin umax (Nat.eqb lvl 0) (wl_tbl c p v W lvl) Hb) as [d [E [_ [I2 _]]]].
    rewrite E in H. cbn [pbind] in H. destruct d as [|u d'].
    - destruct (t_overlaps c t umin umax) eqn:Ov; [|reflexivity]. destruct (I2 t Ht Ov).
    - exfalso. destruct (new_compaction c sz v lvl el _) in H; cbn [pbind] in H; discriminate.
  Qed.

  (* the scan for the deepest overlapping level *)
  Lemma scan_max_spec umin umax : forall rest i m0, m0 <= i ->
    let r := scan_max c p umin umax i rest m0 in
    m0 <= r /\
    (r = m0 \/ (i <= r /\ r < i + length rest /\ files_overlaps c p (nth (r - i) rest []) umin umax false = true)) /\
    (forall j, r < j -> i <= j -> files_overlaps c p (nth (j - i) rest []) umin umax false = false).
  Proof.
    induction rest as [|tf rest IH]; intros i m0 Hm; cbn [scan_max].
    - split; [lia|]. split; [left; reflexivity|]. intros j _ _. destruct (j - i); reflexivity.
    - cbv zeta. set (m1 := if files_overlaps c p tf umin umax false then i else m0).
      assert (Hm1 : m1 <= S i) by (unfold m1; destruct (files_overlaps c p tf umin umax false); lia).
      specialize (IH (S i) m1 Hm1). cbv zeta in IH. destruct IH as [I1 [I2 I3]].
      set (r := scan_max c p umin umax (S i) rest m1) in *.
      assert (Hm01 : m0 <= m1) by (unfold m1; destruct (files_overlaps c p tf umin umax false); lia).
      split; [lia|]. split.
      + destruct I2 as [I2|[Q1 [Q2 Q3]]].
        * unfold m1 in I2. destruct (files_overlaps c p tf umin umax false) eqn:Ov; [|left; exact I2].
          right. rewrite I2. split; [lia|]. split; [cbn [length]; lia|]. rewrite Nat.sub_diag. exact Ov.
        * right. split; [lia|]. split; [cbn [length]; lia|].
          replace (r - i) with (S (r - S i)) by lia. exact Q3.
      + intros j Hj Hij. destruct (Nat.eq_dec j i) as [->|Hne].
        * rewrite Nat.sub_diag. cbn [nth]. destruct (files_overlaps c p tf umin umax false) eqn:Ov; [|reflexivity].
          exfalso. unfold m1 in I1. rewrite ?Ov in I1. lia.
        * replace (j - i) with (S (j - S i)) by lia. cbn [nth]. apply I3; lia.
  Qed.

  Lemma files_overlaps_nil umin umax : files_overlaps c p [] umin umax false = false.
  Proof. unfold files_overlaps. cbn [length]. destruct umin as [[|b m]|]; reflexivity. Qed.

  Lemma range_max_level_spec v umin umax :
    let m := range_max_level c p v umin umax in
    1 <= m /\ (m = 1 \/ files_overlaps c p (lv v m) umin umax false = true) /\
    (forall l, m < l -> files_overlaps c p (lv v l) umin umax false = false).
  Proof.
    unfold range_max_level. destruct (scan_max_spec umin umax (skipn 1 v) 1 1 (le_n 1)) as [H1 [H2 H3]].
    set (m := scan_max c p umin umax 1 (skipn 1 v) 1) in *. cbv zeta.
    assert (En : forall j, 1 <= j -> nth (j - 1) (skipn 1 v) [] = lv v j).
    { intros j Hj. unfold lv. destruct v as [|x r]; cbn [skipn].
      - destruct (j - 1); destruct j; reflexivity.
      - destruct j as [|j]; [lia|]. cbn [nth]. replace (S j - 1) with j by lia. reflexivity. }
    split; [exact H1|]. split.
    - destruct H2 as [H2|[Q1 [_ Q3]]]; [left; exact H2|right]. rewrite (En m Q1) in Q3. exact Q3.
    - intros l Hl. rewrite <- (En l) by lia. apply H3; lia.
  Qed.

  Lemma range_max_level_le v umin umax K : 1 <= K -> levels_below v (S K) -> range_max_level c p v umin umax <= K.
  Proof.
    intros HK Hb. destruct (range_max_level_spec v umin umax) as [_ [[E|E] _]]; [lia|].
    destruct (Nat.le_gt_cases (range_max_level c p v umin umax) K) as [Q|Q]; [exact Q|].
    rewrite (Hb _ Q), files_overlaps_nil in E. discriminate.
  Qed.

  Variable umin umax : option bytes.
  Variable K : nat.
  Hypothesis HK : 1 <= K.

  Definition inv (st : cpstate) : Prop := wf_lsm (cp_v st) /\ levels_below (cp_v st) (S K).

  (* no table of levels [a, b) overlaps the range *)
  Definition clear_between (v : list (list table)) (a b : nat) : Prop :=
    forall l t, a <= l -> l < b -> In t (lv v l) -> t_overlaps c t umin umax = false.

  Lemma range_levels_spec : forall n level st log, inv st -> level + n <= K ->
    exists st' log', range_levels c sz o bld n level st umin umax log = POk (st', log ++ log') /\ inv st' /\
      wsum K (tl (cp_v st')) + length log' <= wsum K (tl (cp_v st)) /\
      tsum (S K) (tl (cp_v st')) <= tsum (S K) (tl (cp_v st)) /\
      (log' = [] -> st' = st /\ clear_between (cp_v st) level (level + n)).
  Proof.
    induction n as [|n IH]; intros level st log [W Hb] Hn; cbn [range_levels].
    - exists st, []. rewrite app_nil_r. split; [reflexivity|]. split; [split; assumption|]. split; [cbn; lia|].
      split; [lia|]. intros _. split; [reflexivity|]. intros l t H1 H2. lia.
    - unfold get_compaction_range.
      destruct (range_compaction_seed c ok p sz (cp_v st) level umin umax false (o_src_limit o level) (o_exp_limit o level) W)
        as [r [Er Hr]].
      rewrite Er. cbn [pbind]. destruct r as [cm|].
      + destruct (Hr cm eq_refl) as [seed [Sk En]].
        destruct (table_compaction_spec st level seed cm true W Sk En) as [st1 [Et [Rel _]]].
        rewrite Et. cbn [pbind].
        assert (I1 : inv st1).
        { split; [apply Rel|]. apply (step_rel_below (cp_v st) level (cp_v st1) (S K) Rel Hb). lia. }
        destruct (IH (S level) st1 (log ++ [cm]) I1 ltac:(lia)) as [st' [log' [E2 [I2 [M2 [T2 _]]]]]].
        exists st', (cm :: log'). rewrite <- app_assoc in E2. cbn [app] in E2. split; [exact E2|].
        split; [exact I2|]. pose proof (step_rel_wsum (cp_v st) level (cp_v st1) K Rel ltac:(lia)) as M1.
        pose proof (step_rel_tsum (cp_v st) level (cp_v st1) (S K) Rel) as T1.
        split; [cbn [length]; lia|]. split; [lia|]. discriminate.
      + destruct (IH (S level) st log (conj W Hb) ltac:(lia)) as [st' [log' [E2 [I2 [M2 [T2 C2]]]]]].
        exists st', log'. split; [exact E2|]. split; [exact I2|]. split; [exact M2|]. split; [exact T2|].
        intros El. destruct (C2 El) as [-> Cl]. split; [reflexivity|].
        intros l t H1 H2 Ht. destruct (Nat.eq_dec l level) as [->|Hne].
        * apply (range_none_clear (cp_v st) level umin umax false _ _ W Er t Ht).
        * apply (Cl l t); [lia|lia|exact Ht].
  Qed.

  (* the state CompactRange returns with: every table overlapping the range is in level m *)
  Definition range_post (v : list (list table)) : Prop :=
    let m := range_max_level c p v umin umax in
    (forall l t, l < m -> In t (lv v l) -> t_overlaps c t umin umax = false) /\
    (forall l, m < l -> files_overlaps c p (lv v l) umin umax false = false).

  Lemma compact_range_spec : forall fuel st passes, inv st ->
    (wsum K (tl (cp_v st)) < fuel ->
       exists st' ps, compact_range c p sz o bld fuel st umin umax passes = POk (st', passes ++ ps)) /\
    (forall st' ps, compact_range c p sz o bld fuel st umin umax passes = POk (st', ps) ->
       inv st' /\ range_post (cp_v st') /\ tsum (S K) (tl (cp_v st')) <= tsum (S K) (tl (cp_v st)) /\
       exists m, last ps (0, []) = (m, []) /\ m = range_max_level c p (cp_v st') umin umax).
  Proof.
    induction fuel as [|fuel IH]; intros st passes I.
    { split; [lia|]. intros st' ps H. discriminate. }
    cbn [compact_range]. unfold range_pass. set (m := range_max_level c p (cp_v st) umin umax).
    assert (Hm : m <= K) by (apply (range_max_level_le _ _ _ K HK); apply I).
    destruct (range_levels_spec m 0 st [] I ltac:(lia)) as [st1 [log [E1 [I1 [M1 [T1 C1]]]]]].
    cbn [app] in E1. rewrite E1. cbn [pbind fst snd]. destruct log as [|cm log].
    - destruct (C1 eq_refl) as [-> Cl]. split.
      + intros _. exists st, [(m, [])]. reflexivity.
      + intros st' ps H. injection H as <- <-. split; [exact I|]. split.
        * split; [|apply (range_max_level_spec (cp_v st) umin umax)].
          intros l t Hl Ht. apply (Cl l t); [lia|exact Hl|exact Ht].
        * split; [lia|]. exists m. split; [apply last_last|reflexivity].
    - destruct (IH st1 (passes ++ [(m, cm :: log)]) I1) as [A B]. split.
      + intros Hf. cbn [length] in M1. destruct (A ltac:(lia)) as [st' [ps E]].
        exists st', ((m, cm :: log) :: ps). rewrite E, <- app_assoc. reflexivity.
      + intros st' ps H. destruct (B st' ps H) as [B1 [B2 [B3 B4]]]. split; [exact B1|]. split; [exact B2|].
        split; [lia|exact B4].
  Qed.
End Range.

Section Closed.
  Variable c : comparer.
  Hypothesis ok : comparer_ok c.
  Variable p : kparams.
  Hypothesis pok : kparams_ok p.
  Variable sz : table -> N.
  Variable o : copts.
  Variable bld : nat -> list (list table) -> compaction -> list table.
  Variable ms : nat -> N.
  Hypothesis B_ok : bld_ok c p sz o bld ms.

  (* the level bound and the fuel bound of the range loop *)
  Definition range_depth (v : list (list table)) : nat := Nat.max 1 (length v - 1).
  Definition range_fuel (v : list (list table)) : nat := S (range_depth v * elen (concat v)).

  Lemma range_inv0 st : wf_lsm c p (cp_v st) -> inv c p (range_depth (cp_v st)) st.
  Proof.
    intros W. split; [exact W|]. apply (levels_below_mono _ (length (cp_v st))); [apply levels_below_length|].
    unfold range_depth. lia.
  Qed.

  Lemma wsum_le_entries K v : wsum K (tl v) <= K * elen (concat v).
  Proof.
    eapply Nat.le_trans; [apply wsum_le_tsum|]. apply Nat.mul_le_mono_l. apply tsum_tl_le.
  Qed.

  Theorem compact_range_terminates st umin umax : wf_lsm c p (cp_v st) ->
    forall fuel, range_fuel (cp_v st) <= fuel ->
    exists st' passes, compact_range c p sz o bld fuel st umin umax [] = POk (st', passes).
  Proof.
    intros W fuel Hf. set (K := range_depth (cp_v st)).
    assert (HK : 1 <= K) by (unfold K, range_depth; lia).
    destruct (compact_range_spec c ok p pok sz o bld ms B_ok umin umax K HK fuel st [] (range_inv0 st W)) as [A _].
    destruct A as [st' [ps E]].
    - pose proof (wsum_le_entries K (cp_v st)). unfold range_fuel in Hf. fold K in Hf. lia.
    - exists st', ps. exact E.
  Qed.

  Theorem compact_range_post st umin umax fuel st' passes : wf_lsm c p (cp_v st) ->
    compact_range c p sz o bld fuel st umin umax [] = POk (st', passes) ->
    wf_lsm c p (cp_v st') /\
    (let m := range_max_level c p (cp_v st') umin umax in
     (forall l t, l < m -> In t (lv (cp_v st') l) -> t_overlaps c t umin umax = false) /\
     (forall l, m < l -> files_overlaps c p (lv (cp_v st') l) umin umax false = false) /\
     last passes (0, []) = (m, [])) /\
    levels_below (cp_v st') (S (range_depth (cp_v st))).
  Proof.
    intros W E. set (K := range_depth (cp_v st)).
    assert (HK : 1 <= K) by (unfold K, range_depth; lia).
    destruct (compact_range_spec c ok p pok sz o bld ms B_ok umin umax K HK fuel st [] (range_inv0 st W)) as [_ B].
    destruct (B st' passes E) as [[W' Hb] [[P1 P2] [_ [m [L1 L2]]]]].
    split; [exact W'|]. split; [|exact Hb]. cbv zeta. split; [exact P1|]. split; [exact P2|]. rewrite L1, L2. reflexivity.
  Qed.
End Closed.
