(* Lsm/BuilderReads.v — what tableCompactionBuilder installs (model Lsm/Builder.v), after any history of transient
   failures, preserves every read at a sequence number >= minSeq: the drop-rule theorems (CompactProofs.drop_rule_sound,
   ReorgProofs.compaction_preserves) applied to the tables actually recorded when compactionTransact returns. *)
From GL Require Import Lsm.LsmProofs Lsm.CompactProofs Lsm.ReorgProofs Lsm.Builder Lsm.BuilderBase Lsm.BuilderCuts.

Section Reads.
  Variable c : comparer.
  Hypothesis ok : comparer_ok c.
  Variable p : kparams.
  Hypothesis pok : kparams_ok p.
  Variable sz : table -> N.
  Variable gp : list table.
  Variable maxgp : N.
  Variable deeper : list (list table).
  Hypothesis Dok : Forall (lvl_ok c p) deeper.
  Variable minSeq : N.
  Hypothesis minSeq_lt : minSeq < keyMaxSeq p.
  Variable strict : bool.
  Variable tableSize : N.
  Variable tsize : list item -> N.

  Notation transact := (transact c p sz gp maxgp deeper minSeq strict tableSize tsize).

  Theorem builder_preserves_reads es os s' : ssorted c es -> kinds_ok p es ->
    transact os (map IGood es) (bst0 deeper) = (s', TDone) ->
    forall k s, minSeq <= s ->
      CompactProofs.res p (newest c k s (concat (fin s')) None) = CompactProofs.res p (newest c k s es None).
  Proof.
    intros Hs Hk H k s Hms.
    destruct (transact_good c ok p sz gp maxgp deeper Dok minSeq strict tableSize tsize es os s'
                (ssorted_uk_sorted c es Hs) H) as [_ [_ [Q _]]].
    rewrite Q. apply (drop_rule_sound c ok p pok minSeq (is_base c deeper) minSeq_lt k s es Hs Hk Hms).
  Qed.

  Theorem builder_compaction_preserves I O os s' :
    kinds_ok p I -> NoDup (map keyseq I) -> uniq_in (I ++ O) ->
    (forall o i, In o O -> In i I -> e_uk o = e_uk i ->
       e_seq i < e_seq o \/ (e_seq o < e_seq i /\ is_base c deeper (e_uk i) = false)) ->
    transact os (map IGood (isort c I)) (bst0 deeper) = (s', TDone) ->
    forall k s, minSeq <= s ->
      History.res p (newest c k s (concat (fin s') ++ O) None) = History.res p (newest c k s (I ++ O) None).
  Proof.
    intros Hk Hn Hu Ho H k s Hms.
    assert (Hs : ssorted c (isort c I)) by (apply (isort_sorted c ok p pok); assumption).
    destruct (transact_good c ok p sz gp maxgp deeper Dok minSeq strict tableSize tsize (isort c I) os s'
                (ssorted_uk_sorted c _ Hs) H) as [_ [_ [Q _]]].
    rewrite Q. apply (compaction_preserves c ok p pok minSeq (is_base c deeper) minSeq_lt I O Hk Hn Hu Ho k s Hms).
  Qed.
End Reads.
