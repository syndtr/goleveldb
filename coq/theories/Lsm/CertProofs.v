(* Lsm/CertProofs.v — the boolean certificate evaluated on an observed compaction implies the
   hypotheses of ReorgProofs.compaction_preserves, hence reads at every sequence number >= minSeq are
   preserved by that compaction. *)
From GL Require Import Base.OrderProofs Lsm.LsmProofs Lsm.History Lsm.ReorgProofs Lsm.WfProofs.
From GL Require Mem.ListLemmas.

Section Proofs.
  Variable c : comparer.
  Hypothesis ok : comparer_ok c.
  Variable p : kparams.
  Hypothesis pok : kparams_ok p.

  Lemma uniqb_uniq_in l : uniqb l = true -> uniq_in l.
  Proof.
    intros H a b Ha Hb Hu Hs. apply (ListLemmas.NoDup_map_inj keyseq l a b (uniqb_nodup l H) Ha Hb).
    unfold keyseq. congruence.
  Qed.

  Lemma othersb_soundE base I O : othersb c base I O = true ->
    forall o i, In o O -> In i I -> cmp c (e_uk o) (e_uk i) = Eq ->
      e_seq i < e_seq o \/ (e_seq o < e_seq i /\ base (e_uk i) = false).
  Proof.
    unfold othersb. rewrite forallb_forall. intros H o i Ho Hi Hu.
    specialize (H o Ho). rewrite forallb_forall in H. specialize (H i Hi).
    rewrite Hu in H. apply orb_prop in H as [H|H].
    - left. apply N.ltb_lt. exact H.
    - right. apply andb_prop in H as [H1 H2]. split; [apply N.ltb_lt; exact H1|].
      destruct (base (e_uk i)); [discriminate|reflexivity].
  Qed.

  Lemma othersb_sound base I O : othersb c base I O = true ->
    forall o i, In o O -> In i I -> e_uk o = e_uk i ->
      e_seq i < e_seq o \/ (e_seq o < e_seq i /\ base (e_uk i) = false).
  Proof.
    intros H o i Ho Hi Hu. apply (othersb_soundE base I O H o i Ho Hi). rewrite Hu. apply (cmp_refl c ok).
  Qed.

  (* An observed compaction whose certificate evaluates to true preserves every read at a sequence number
     >= minSeq: outs are the tables it wrote, I the entries of the tables it consumed, O everything else. *)
  Theorem certificate_sound minSeq deeper I O outs :
    compaction_cert c p minSeq deeper I O outs = true ->
    concat outs = drop_run c p minSeq (is_base c deeper) None (isort c I) ->
    forall k s, minSeq <= s ->
      History.res p (newest c k s (concat outs ++ O) None) = History.res p (newest c k s (I ++ O) None).
  Proof.
    unfold compaction_cert. intros H Houts k s Hs.
    apply andb_prop in H as [H H4]. apply andb_prop in H as [H H3]. apply andb_prop in H as [H1 H2].
    rewrite Houts.
    apply (compaction_preserves c ok p pok minSeq (is_base c deeper)).
    - apply N.ltb_lt. exact H4.
    - apply kindsb_ok. exact H1.
    - pose proof (uniqb_nodup (I ++ O) H2) as Hn. rewrite map_app in Hn.
      eapply ListLemmas.NoDup_app_l. exact Hn.
    - apply uniqb_uniq_in. exact H2.
    - apply othersb_sound. exact H3.
    - exact Hs.
  Qed.
End Proofs.
