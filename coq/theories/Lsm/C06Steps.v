(* Lsm/C06Steps.v — the step theorems of property C06 in closed form: for every comparer, every well-formed version,
   every level and every seed, what the model of goleveldb's picker / flush placement / installer does keeps the
   invariant WfLsm.wf_lsm. *)
From GL Require Import Lsm.LsmProofs Lsm.ReorgProofs Lsm.Pick Lsm.PickBase Lsm.ExpandProofs Lsm.WfLsm Lsm.ModelStep
  Lsm.RangeStep
  Lsm.FlushProofs.
From Coq Require Import Arith Lia.

Local Open Scope nat_scope.

Section Closed.
  Variable c : comparer.
  Hypothesis ok : comparer_ok c.
  Variable p : kparams.
  Hypothesis pok : kparams_ok p.
  Variable sz : table -> N.

  Notation wf_lsm := (wf_lsm c p).
  Notation umin_of := Pick.umin_of.
  Notation umax_of := Pick.umax_of.

  (* a seed: non-empty, distinct tables of the source level *)
  Definition seed_ok (v : list (list table)) (lvl : nat) (seed : list table) : Prop :=
    seed <> [] /\ incl seed (lv v lvl) /\ NoDup seed.

  (* new numbers: pairwise different and used by no live table *)
  Definition fresh_nums (v : list (list table)) (nums : list N) : Prop :=
    NoDup nums /\ forall n i s, In n nums -> In s (lv v i) -> t_num s <> n.

  (* the output tables of a compaction: chunks of the kept merged entries, cut only between different user keys *)
  Definition outputs_of (cm : compaction) (minSeq : N) (deeper : list (list table)) (chunks : list (list entry)) : Prop :=
    cuts_ok c chunks = true /\ concat chunks = compact_entries c p minSeq deeper (c_t0 cm ++ c_t1 cm).

  Theorem inputs_closed v lvl limit seed : wf_lsm v -> seed_ok v lvl seed ->
    exists cm, new_compaction c sz v lvl limit seed = POk cm /\
      c_level cm = lvl /\ incl seed (c_t0 cm) /\ incl (c_t0 cm) (lv v lvl) /\ incl (c_t1 cm) (lv v (S lvl)) /\
      (forall s ta tb, In s (lv v (S lvl)) -> In ta (c_t0 cm) -> In tb (c_t0 cm) ->
         t_overlaps c s (Some (umin_of ta)) (Some (umax_of tb)) = true -> In s (c_t1 cm)) /\
      (lvl = 0 -> forall s ta tb, In s (lv v 0) -> In ta (c_t0 cm) -> In tb (c_t0 cm) ->
         t_overlaps c s (Some (umin_of ta)) (Some (umax_of tb)) = true -> In s (c_t0 cm)).
  Proof.
    intros W [S1 [S2 S3]]. destruct (model_pick c ok p sz v W lvl limit seed S1 S2 S3) as [cm [E Pk]].
    exists cm. split; [exact E|]. split; [apply (pk_level c v lvl seed cm Pk)|].
    split; [apply (pk_seed c v lvl seed cm Pk)|]. split; [apply (pk_t0 c v lvl seed cm Pk)|].
    split; [apply (pk_t1 c v lvl seed cm Pk)|]. split.
    - apply (inputs_closed_next c ok v lvl seed cm Pk).
    - intros E0 s ta tb. apply (inputs_closed_l0 c v lvl seed S2 cm Pk s ta tb E0).
  Qed.

  Theorem compaction_step v lvl limit seed : wf_lsm v -> seed_ok v lvl seed ->
    exists cm, new_compaction c sz v lvl limit seed = POk cm /\
      forall minSeq deeper chunks nums, outputs_of cm minSeq deeper chunks ->
        length nums = length chunks -> fresh_nums v nums ->
        exists nv, finish c true v (compaction_edit cm (mk_outputs nums chunks)) = POk nv /\ wf_lsm nv.
  Proof.
    intros W [S1 [S2 S3]]. destruct (model_pick c ok p sz v W lvl limit seed S1 S2 S3) as [cm [E Pk]].
    exists cm. split; [exact E|]. intros minSeq deeper chunks nums [C1 C2] Hl [F1 F2].
    apply (model_compaction_step c ok p pok sz v W lvl seed S2 cm Pk minSeq deeper chunks nums C1 C2 Hl F1 F2).
  Qed.

  (* v2 = the version at commit time: v plus level-0 tables that are newer than everything in v *)
  Definition later_version (v v2 : list (list table)) : Prop :=
    wf_lsm v2 /\ (forall l, 0 < l -> lv v2 l = lv v l) /\ (forall s, In s (lv v 0) -> In s (lv v2 0)) /\
    (forall s, In s (lv v2 0) -> In s (lv v 0) \/
       forall x i y, In x (t_entries s) -> In y (LE (lv v i)) -> e_uk x = e_uk y -> (e_seq y < e_seq x)%N).

  Theorem compaction_step_interleaved v lvl limit seed : wf_lsm v -> seed_ok v lvl seed ->
    exists cm, new_compaction c sz v lvl limit seed = POk cm /\
      forall v2 minSeq deeper chunks nums, later_version v v2 -> outputs_of cm minSeq deeper chunks ->
        length nums = length chunks -> fresh_nums v2 nums ->
        exists nv, finish c true v2 (compaction_edit cm (mk_outputs nums chunks)) = POk nv /\ wf_lsm nv.
  Proof.
    intros W [S1 [S2 S3]]. destruct (model_pick c ok p sz v W lvl limit seed S1 S2 S3) as [cm [E Pk]].
    exists cm. split; [exact E|]. intros v2 minSeq deeper chunks nums [L1 [L2 [L3 L4]]] [C1 C2] Hl [F1 F2].
    apply (model_compaction_step_interleaved c ok p pok sz v W lvl seed S2 cm Pk minSeq deeper chunks nums C1 C2 Hl F1
             v2 L1 L2 L3 L4 F2).
  Qed.

  Theorem trivial_move_step v lvl limit seed : wf_lsm v -> seed_ok v lvl seed ->
    exists cm, new_compaction c sz v lvl limit seed = POk cm /\
      forall max_gp, trivial sz cm max_gp = true ->
        exists nv, finish c true v (move_edit cm) = POk nv /\ wf_lsm nv.
  Proof.
    intros W [S1 [S2 S3]]. destruct (model_pick c ok p sz v W lvl limit seed S1 S2 S3) as [cm [E Pk]].
    exists cm. split; [exact E|]. intros max_gp T. destruct (trivial_shape sz cm max_gp T) as [t [E0 E1]].
    destruct (model_move_levels c ok p sz v W lvl seed S1 S2 cm Pk t E0 E1) as [nv [F [Wn _]]]. exists nv. split; assumption.
  Qed.

  (* stored sequence numbers fit the 56 bits of an internal key (makeInternalKey panics otherwise) *)
  Definition seqs_fit (v : list (list table)) : Prop :=
    forall i t, In t (lv v i) -> (e_seq (t_hi t) <= keyMaxSeq p)%N.

  (* the table a flush writes: well-formed, no two entries with the same (key, seq), newer than every stored entry of
     the same user key, under an unused file number *)
  Definition flushed_ok (v : list (list table)) (t : table) : Prop :=
    tbl_ok c p t /\ uniq (t_entries t) /\
    (forall i x y, In x (t_entries t) -> In y (LE (lv v i)) -> e_uk x = e_uk y -> (e_seq y < e_seq x)%N) /\
    (forall i s, In s (lv v i) -> t_num s <> t_num t).

  Theorem flush_step v gp_limit maxLevel t : wf_lsm v -> seqs_fit v -> flushed_ok v t ->
    exists nv, finish c true v (flush_edit c p sz v gp_limit maxLevel t) = POk nv /\ wf_lsm nv.
  Proof.
    intros W Sq [T1 [T2 [T3 T4]]]. unfold flush_edit.
    apply (install_step c ok p sz v W Sq (umin_of t) (umax_of t) gp_limit t _ T1 T2 T3 T4 (conj eq_refl eq_refl)).
    apply (pick_memdb_level_spec c ok p pok sz v W Sq).
  Qed.

  (* the entry-level hypotheses of ReorgProofs.compaction_preserves are discharged for model-built compactions: reads at
     every sequence number >= minSeq are preserved.  M = entries of the write buffers. *)
  Theorem model_compaction_admissible v lvl limit seed : wf_lsm v -> seed_ok v lvl seed ->
    exists cm, new_compaction c sz v lvl limit seed = POk cm /\
      forall M minSeq, (minSeq < keyMaxSeq p)%N -> uniq_in M ->
        (forall m i x, In m M -> In x (LE (lv v i)) -> e_uk x = e_uk m -> (e_seq x < e_seq m)%N) ->
        let inputs := c_t0 cm ++ c_t1 cm in
        let others := M ++ LE (filter (fun t => negb (is_input (nums_of inputs) t)) (concat v)) in
        forall k s, (minSeq <= s)%N ->
          History.res p (newest c k s (compact_entries c p minSeq (skipn (lvl + 2) v) inputs ++ others) None) =
          History.res p (newest c k s (LE inputs ++ others) None).
  Proof.
    intros W [S1 [S2 S3]]. destruct (model_pick c ok p sz v W lvl limit seed S1 S2 S3) as [cm [E Pk]].
    exists cm. split; [exact E|]. intros M minSeq H1 H2 H3 inputs others k s Hs.
    apply (ModelStep.model_compaction_admissible c ok p pok sz v W lvl seed S2 cm Pk M minSeq H1 H2 H3 k s Hs).
  Qed.

  (* Range compactions (CompactRange -> tableRangeCompaction -> getCompactionRange): the seed is what getOverlaps
     returns for the range, cut by the source limit; it satisfies seed_ok, so the theorems above apply. *)
  Lemma limit_prefix_ok total limit tf : tf <> [] ->
    limit_prefix sz total limit tf <> [] /\ incl (limit_prefix sz total limit tf) tf /\
    (NoDup tf -> NoDup (limit_prefix sz total limit tf)).
  Proof.
    revert total; induction tf as [|t tf IH]; intros total H; [congruence|]. cbn [limit_prefix]. cbv zeta.
    destruct (limit <=? total + sz t)%N.
    - split; [discriminate|]. split; [intros x [<-|[]]; left; reflexivity|]. intros _. constructor; [intros []|constructor].
    - split; [discriminate|]. destruct tf as [|u tf'].
      + cbn [limit_prefix]. split; [apply incl_refl|auto].
      + destruct (IH (total + sz t)%N ltac:(discriminate)) as [_ [I2 I3]]. split.
        * intros x [<-|Hx]; [left; reflexivity|right; apply I2; exact Hx].
        * intros N. apply NoDup_cons_iff in N as [N1 N2]. constructor; [|apply I3; exact N2].
          intros Hin. apply N1. apply I2. exact Hin.
  Qed.

  Theorem range_compaction_seed v lvl umin umax noLimit src_limit exp_limit : wf_lsm v ->
    exists r, compaction_range c sz v lvl umin umax noLimit src_limit exp_limit = POk r /\
      forall cm, r = Some cm ->
        exists seed, seed_ok v lvl seed /\ new_compaction c sz v lvl exp_limit seed = POk cm.
  Proof.
    intros W. unfold compaction_range. destruct (Nat.leb (length v) lvl); [exists None; split; [reflexivity|discriminate]|].
    assert (Hb : Nat.eqb lvl 0 = false -> bsorted c (nth lvl v [])).
    { intros H. apply Nat.eqb_neq in H. apply (level_sorted_bsorted c p); [apply (wl_tbl c p v W)|apply (wl_deep c p v W); lia]. }
    destruct (gov_spec c ok p (nth lvl v []) umin umax (Nat.eqb lvl 0) (wl_tbl c p v W lvl) Hb)
      as [t0 [E [I1 [_ [_ [_ I5]]]]]].
    rewrite E. cbn [pbind]. specialize (I5 (lv_nodup c p v W lvl)).
    destruct t0 as [|u t0'] eqn:Et; [exists None; split; [reflexivity|discriminate]|]. rewrite <- Et in *.
    assert (Hne : t0 <> []) by (rewrite Et; discriminate).
    set (sd := if negb noLimit && Nat.ltb 0 lvl then limit_prefix sz 0 src_limit t0 else t0).
    assert (Sok : seed_ok v lvl sd).
    { unfold sd. destruct (negb noLimit && Nat.ltb 0 lvl)%bool.
      - destruct (limit_prefix_ok 0%N src_limit t0 Hne) as [L1 [L2 L3]].
        split; [exact L1|]. split; [intros x Hx; apply I1; apply L2; exact Hx|apply L3; exact I5].
      - split; [exact Hne|]. split; [exact I1|exact I5]. }
    destruct Sok as [S1 [S2 S3]].
    destruct (model_pick c ok p sz v W lvl exp_limit sd S1 S2 S3) as [cm [Ec _]].
    rewrite Ec. cbn [pbind]. exists (Some cm). split; [reflexivity|]. intros cm' H. injection H as <-.
    exists sd. split; [split; [exact S1|split; [exact S2|exact S3]]|exact Ec].
  Qed.
End Closed.
