(* Lsm/WfPreProofs.v — the class-based boolean certificates (Lsm/CompactPre.v) imply the hypotheses of the preorder
   theorems: wf_versioncb => LsmPreProofs.wf_state_pre (read path), compaction_certc => the hypotheses of
   ReorgPreProofs.compaction_preserves_pre. *)
From GL Require Import Base.OrderPre Lsm.CompactPre Lsm.LsmProofs Lsm.LsmPreProofs Lsm.ReorgPreProofs Lsm.WfProofs
  Lsm.CertProofs.

Section Proofs.
  Variable c : comparer.
  Hypothesis ok : comparer_pre_ok c.
  Variable p : kparams.
  Hypothesis pok : kparams_ok p.

  Lemma newer_than_E hi lo : newer_than c hi lo = true -> newer_thanE c hi lo.
  Proof.
    unfold newer_than, newer_thanE. rewrite forallb_forall. intros H a b Ha Hb Hu.
    specialize (H a Ha). rewrite forallb_forall in H. specialize (H b Hb).
    rewrite Hu in H. apply N.ltb_lt in H. exact H.
  Qed.

  Lemma levels_newer_chainE lvls : levels_newer c lvls = true ->
    chain_newerE c (map LsmProofs.level_entries lvls).
  Proof.
    induction lvls as [|l rest IH]; intros H; [exact I|].
    cbn [levels_newer] in H. apply andb_prop in H as [H1 H2]. cbn [map chain_newerE]. split; [|apply IH; exact H2].
    rewrite forallb_forall in H1. rewrite Forall_forall. intros y Hy.
    apply in_map_iff in Hy as [d [<- Hd]]. apply newer_than_E. apply H1. exact Hd.
  Qed.

  Lemma uniqcb_uniqE l : uniqcb c l = true -> uniqE c l.
  Proof.
    induction l as [|a l IH]; intros H; [exact I|].
    cbn [uniqcb] in H. apply andb_prop in H as [H1 H2]. cbn [uniqE]. split; [|apply IH; exact H2].
    intros b Hb [E1 E2]. rewrite forallb_forall in H1. specialize (H1 b Hb).
    unfold keqb in H1. rewrite E1 in H1. apply N.eqb_eq in E2. rewrite E2 in H1. discriminate.
  Qed.

  Lemma uniqE_uniq_inE l : uniqE c l -> uniq_inE c l.
  Proof. intros H a b Ha Hb Hu Hs. apply (uniqE_in c ok l H a b Ha Hb). split; assumption. Qed.

  Lemma uniqE_app_left l1 l2 : uniqE c (l1 ++ l2) -> uniqE c l1.
  Proof.
    induction l1 as [|x l1 IH]; cbn; [auto|]. intros [H1 H2]. split; [|apply IH; exact H2].
    intros b Hb. apply H1. apply in_or_app. left; exact Hb.
  Qed.

  (* The class-based boolean certificate evaluated on a dumped version implies the read-path invariant of
     LsmPreProofs.get_correct_pre. *)
  Theorem wf_versioncb_sound lvls : wf_versioncb c p lvls = true ->
    wf_state_pre c p {| st_mem := []; st_frozen := []; st_aux := []; st_levels := lvls |}.
  Proof.
    unfold wf_versioncb. intros H. apply andb_prop in H as [H H3]. apply andb_prop in H as [H1 H2].
    destruct (version_levels_ok c ok p lvls H1) as [T D].
    constructor; cbn [st_mem st_frozen st_aux st_levels].
    - split; [exact I|constructor].
    - split; [exact I|constructor].
    - split; [constructor|exact I].
    - destruct lvls as [|l0 rest]; cbn [hd]; [split; [constructor|exact I]|].
      apply andb_prop in H2 as [H2 _]. apply andb_prop in H2 as [_ H2].
      split; [apply T; left; reflexivity|apply uniqcb_uniqE; exact H2].
    - destruct lvls as [|l0 rest]; cbn [tl]; [constructor|].
      apply andb_prop in H2 as [_ H2]. rewrite forallb_forall in H2. rewrite Forall_forall. intros l Hl.
      apply D; [right; exact Hl|apply H2; exact Hl].
    - unfold comps; cbn [st_mem st_frozen st_aux st_levels chain_newerE].
      assert (E : forall l : list (list entry), Forall (fun y => newer_thanE c [] y) l).
      { intros l. rewrite Forall_forall. intros y _ a b []. }
      split; [apply E|]. split; [apply E|]. split; [apply E|]. apply levels_newer_chainE. exact H3.
  Qed.

  (* An observed compaction whose class-based certificate evaluates to true preserves every read (of any spelling of
     any user key) at a sequence number >= minSeq. *)
  Theorem certificatec_sound minSeq deeper I O outs :
    compaction_certc c p minSeq deeper I O outs = true ->
    concat outs = drop_run c p minSeq (is_base c deeper) None (isort c I) ->
    forall k s, minSeq <= s ->
      History.res p (newest c k s (concat outs ++ O) None) = History.res p (newest c k s (I ++ O) None).
  Proof.
    unfold compaction_certc. intros H Houts k s Hs.
    apply andb_prop in H as [H H4]. apply andb_prop in H as [H H3]. apply andb_prop in H as [H1 H2].
    rewrite Houts.
    apply (compaction_preserves_pre c ok p pok minSeq (is_base c deeper)).
    - apply N.ltb_lt. exact H4.
    - apply (kindsb_ok p). exact H1.
    - eapply uniqE_app_left. apply uniqcb_uniqE. exact H2.
    - apply uniqE_uniq_inE. apply uniqcb_uniqE. exact H2.
    - apply othersb_soundE. exact H3.
    - exact Hs.
  Qed.
End Proofs.
