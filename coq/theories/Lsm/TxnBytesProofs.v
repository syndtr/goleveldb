(* Lsm/TxnBytesProofs.v — proofs about the byte-level transaction machine of Lsm/TxnBytes.v:
   (A) the read path with the transaction's memdb and tables (DB.get with auxm / auxt) refines the L1 read
       path on the abstraction that has the private memdb as first buffer and the private tables as aux level;
   (B) one Put / Delete, a private flush, a (possibly failing) Write keep the transaction's invariant and
       apply exactly a prefix of the records, stamped tr.seq+1, tr.seq+2, ...;
   (C) the byte machine refines the history-level machine of Lsm/Txn.v, step by step;
   (D) reads inside = base overlaid with the applied records, reads outside = base, on bytes. *)
From GL Require Import Codec.Table Lsm.LsmProofs Lsm.HistoryProofs Lsm.ReadPath Lsm.ReadPathKey Lsm.ReadPathMem
  Lsm.ReadPathProofs Lsm.ReorgProofs Lsm.BatchWriteProofs Lsm.Txn Lsm.TxnProofs Lsm.IterPath Lsm.IterPathProofs
  Lsm.IterPathAbs Lsm.TxnBytes.
From GL Require Import Iter.Merged.
From Coq Require Import ZArith Lia.
Open Scope N_scope.

Section Reads.
  Variable c : comparer.
  Hypothesis ok : comparer_ok c.
  Variable p : kparams.
  Hypothesis pok : kparams_ok p.
  Hypothesis seek_val : keyTypeSeek p <= keyTypeVal p.
  Variable mp : MemDB.mparams.
  Hypothesis mpok : MemDB.mparams_ok mp.
  Variable tp : tparams.
  Variable crc : bytes -> N.
  Variable decompress : bytes -> option bytes.
  Variable fname : option bytes.
  Variable ufc : bytes -> N -> bytes -> bool.
  Variable verify : bool.
  Variable ri : N.

  Local Notation okb := (tfile_okb c p tp crc decompress fname ufc verify ri).
  Local Notation pairs := (tf_pairs c tp crc decompress fname ufc verify ri).
  Local Notation atab := (abs_table c tp crc decompress fname ufc verify ri).
  Local Notation absS := (abs c mp tp crc decompress fname ufc verify ri).

  (* the L1 state DB.get(auxm, auxt, ...) walks once the private memdb missed: the DB's own buffers (empty while a
     transaction is open), the private tables as aux level, the version *)
  Definition aux_state (auxt : list tfile) (st : bstate) : lstate :=
    {| st_mem := mem_entries mp (bs_mem st); st_frozen := mem_entries mp (bs_frozen st);
       st_aux := map atab auxt; st_levels := map (map atab) (bs_levels st) |}.

  (* DB.get with the transaction's memdb and tables, on bytes = Lsm/Txn.v's txn_lsm_get on the abstraction.
     Needs of the components only what the byte-level theorems of C01 need: C14's invariant of the memdbs,
     the format check of every file, the deeper levels sorted. *)
  Theorem db_get_aux_refines auxm auxt st k s : wf_bytes k -> s <= keyMaxSeq p ->
    mem_ok c p mp auxm -> wf_bstate c p mp tp crc decompress fname ufc verify ri st ->
    Forall (fun f => okb f = true) auxt ->
    db_get_aux c p mp tp crc decompress fname ufc verify (Some auxm) auxt st k s =
    BRes (txn_lsm_get c p (mem_entries mp (Some auxm)) (aux_state auxt st) k s).
  Proof.
    intros Wk Hs Ham W Hat.
    apply (get_aux_refines c ok p pok seek_val mp mpok tp crc decompress fname ufc verify ri k s Wk Hs (Some auxm) auxt st); [|exact W|exact Hat].
    intros m E. injection E as <-. exact Ham.
  Qed.
End Reads.

Section Txn.
  Variable c : comparer.
  Hypothesis ok : comparer_ok c.
  Variable p : kparams.
  Hypothesis pok : kparams_ok p.
  Hypothesis seek_val : keyTypeSeek p <= keyTypeVal p.
  Variable mp : MemDB.mparams.
  Hypothesis mpok : MemDB.mparams_ok mp.
  Variable tp : tparams.
  Variable crc : bytes -> N.
  Variable decompress : bytes -> option bytes.
  Variable fname : option bytes.
  Variable ufc : bytes -> N -> bytes -> bool.
  Variable verify : bool.
  Variable ri : N.
  Variable rp : SR.rparams.

  Local Notation ic := (ibc c).
  Local Notation okb := (tfile_okb c p tp crc decompress fname ufc verify ri).
  Local Notation pairs := (tf_pairs c tp crc decompress fname ufc verify ri).
  Local Notation atab := (abs_table c tp crc decompress fname ufc verify ri).
  Local Notation absS := (abs c mp tp crc decompress fname ufc verify ri).
  Local Notation T_flush := (t_flush mp rp).
  Local Notation T_put := (t_put c p mp rp).
  Local Notation T_puts := (t_puts c p mp rp).

  Definition tab_entries (ts : list tfile) : list entry := level_entries (map atab ts).
  Definition mem_es (t : ttxn) : list entry := mem_entries mp (Some (tt_mem t)).
  (* everything the transaction holds: its memdb and its private tables *)
  Definition priv_entries (t : ttxn) : list entry := mem_es t ++ tab_entries (tt_tables t).

  Definition seq_inj (l : list entry) : Prop := forall a b, In a l -> In b l -> e_seq a = e_seq b -> a = b.

  (* the transaction's invariant, relative to the sequence number [base] the DB had when it was opened: the memdb
     satisfies C14's invariant, the private tables pass the format check and are sorted entry lists, every
     private entry carries its own sequence number in (base, tr.seq], the tables hold the older ones *)
  Record tinv (base : N) (t : ttxn) : Prop := {
    ti_mem : mem_ok c p mp (tt_mem t);
    ti_tabs : Forall (fun f => okb f = true) (tt_tables t);
    ti_tok : tables_ok c p (map atab (tt_tables t));
    ti_uniq : uniq (tab_entries (tt_tables t));
    ti_cut : exists fs, base <= fs /\ fs <= tt_seq t /\
               (forall x, In x (tab_entries (tt_tables t)) -> base < e_seq x <= fs) /\
               (forall x, In x (mem_es t) -> fs < e_seq x <= tt_seq t);
    ti_inj : seq_inj (priv_entries t);
    ti_max : tt_seq t <= keyMaxSeq p
  }.

  (* the records applied so far: exactly the transaction's entries, stamped base+1, base+2, ... *)
  Definition applied_rel (base : N) (wr : list wrec) (t : ttxn) : Prop :=
    tt_seq t = base + N.of_nat (length wr) /\ same_elems (priv_entries t) (stamp base wr).

  (* the contract of the table writer (property C13's writer theorems; evaluated at every observed flush by the
     correspondence): the file passes the format check and holds exactly the pairs of the memdb *)
  Definition flush_ok (t : ttxn) (fo : flush_out) : Prop :=
    match fo with
    | FlOk f _ => okb f = true /\ pairs f = mem_pairs mp (tt_mem t)
    | FlErr => True
    end.

  Definition put_pre (t : ttxn) (kt : N) (k : bytes) (o : put_in) : Prop :=
    (kt = keyTypeDel p \/ kt = keyTypeVal p) /\ wf_bytes k /\
    1 <= pi_h o <= MemDB.tMaxHeight mp /\ tt_seq t + 1 <= keyMaxSeq p /\ flush_ok t (pi_flush o).

  Lemma mem_ok_empty d : mem_ok c p mp d -> (MemDB.mdb_len d = 0)%Z -> mem_pairs mp d = [].
  Proof.
    intros [(A & L & I) _] Hn. rewrite (mem_pairs_abs c p seek_val mp mpok d A L I).
    pose proof (MemInv.inv_n _ _ _ _ _ I) as En. unfold MemDB.mdb_len in Hn. rewrite Hn in En.
    destruct L; [reflexivity|cbn [length] in En; lia].
  Qed.

  Lemma rep_empty_ok d : MemOps.rep ic mp d [] [] [] 0 -> mem_ok c p mp d /\ mem_pairs mp d = [].
  Proof.
    intros (I & Ea & _).
    assert (E : mem_pairs mp d = []) by (rewrite (mem_pairs_abs c p seek_val mp mpok d [] [] I); reflexivity).
    split; [|exact E]. split; [exists [], []; exact I|]. unfold mem_keys_okb. rewrite E. reflexivity.
  Qed.

  Lemma tab_entries_snoc ts f : tab_entries (ts ++ [f]) = tab_entries ts ++ map entry_of (pairs f).
  Proof.
    unfold tab_entries, level_entries. rewrite !map_app, concat_app. cbn [map concat abs_table t_entries].
    rewrite app_nil_r. reflexivity.
  Qed.

  Lemma seq_inj_same l1 l2 : same_elems l1 l2 -> seq_inj l1 -> seq_inj l2.
  Proof. intros S H a b Ha Hb. apply H; apply S; assumption. Qed.

  Lemma nodup_keyseq_u l : NoDup (map e_ikey l) -> uniq_in l -> uniq l.
  Proof.
    unfold uniq. induction l as [|a l IH]; intros Hn Hi; [constructor|]. cbn [map] in *.
    apply NoDup_cons_iff in Hn as [Hna Hn]. constructor.
    - intros Hin. apply in_map_iff in Hin as (b & E & Hb). apply Hna.
      assert (a = b).
      { unfold keyseq in E. apply Hi; [left; reflexivity|right; exact Hb|congruence|congruence]. }
      subst b. apply in_map. exact Hb.
    - apply IH; [exact Hn|]. intros x y Hx Hy. apply Hi; right; assumption.
  Qed.

  Lemma uniq_app A M : uniq A -> uniq M -> (forall a b, In a A -> In b M -> e_seq a <> e_seq b) -> uniq (A ++ M).
  Proof.
    unfold uniq. intros HA HM Hd. rewrite map_app. induction A as [|a A IH]; [exact HM|].
    cbn [map app] in *. apply NoDup_cons_iff in HA as [Hna HA]. constructor.
    - intros Hin. apply in_app_or in Hin as [Hin|Hin]; [exact (Hna Hin)|].
      apply in_map_iff in Hin as (b & E & Hb). apply (Hd a b); [left; reflexivity|exact Hb|]. unfold keyseq in E. congruence.
    - apply IH; [exact HA|]. intros x y Hx Hy. apply Hd; [right; exact Hx|exact Hy].
  Qed.

  Lemma t_flush_ok base t fo t' r : tinv base t -> flush_ok t fo -> T_flush t fo = (t', r) ->
    match r with
    | TOk => tinv base t' /\ same_elems (priv_entries t') (priv_entries t) /\ tt_seq t' = tt_seq t /\
             tt_closed t' = tt_closed t /\ tt_cfailed t' = tt_cfailed t /\ mem_es t' = []
    | TErr e => e = ETable /\ fo = FlErr /\ t' = t
    | _ => False
    end.
  Proof.
    intros [Hm Ht Htok Hu (fs & Hb & Hfs & Hcut1 & Hcut2) Hi Hmax] Hfo. unfold t_flush.
    destruct (MemDB.mdb_len (tt_mem t) =? 0)%Z eqn:El.
    - intros E. injection E as <- <-. apply Z.eqb_eq in El.
      assert (Em : mem_es t = []) by (unfold mem_es; cbn [mem_entries]; rewrite (mem_ok_empty _ Hm El); reflexivity).
      split; [constructor; try assumption; exists fs; auto|].
      split; [intros x; tauto|]. repeat split; try reflexivity. exact Em.
    - destruct fo as [f poolcap|]; [|intros E; injection E as <- <-; auto].
      destruct Hfo as [Hf Hp].
      assert (Ef : map entry_of (pairs f) = mem_es t) by (unfold mem_es; cbn [mem_entries]; rewrite Hp; reflexivity).
      destruct (mem_ok_entries c ok p pok seek_val mp mpok _ Hm) as [Hs Hk]. fold (mem_es t) in Hs, Hk.
      (* the state after the flush, for any fresh (empty, well-formed) memdb *)
      assert (G : forall d cap refs, mem_ok c p mp d -> mem_pairs mp d = [] ->
        let t2 := mkTT (tt_seq t) d cap refs (tt_tables t ++ [f]) (SR.add_table rp (tt_rec t) (at_of 0 f)) (tt_closed t) (tt_cfailed t) in
        tinv base t2 /\ same_elems (priv_entries t2) (priv_entries t) /\ tt_seq t2 = tt_seq t /\
        tt_closed t2 = tt_closed t /\ tt_cfailed t2 = tt_cfailed t /\ mem_es t2 = []).
      { intros d cap refs Hd Ed t2.
        assert (Em2 : mem_es t2 = []) by (unfold mem_es, t2; cbn [tt_mem mem_entries]; rewrite Ed; reflexivity).
        assert (Et2 : tab_entries (tt_tables t2) = tab_entries (tt_tables t) ++ mem_es t)
          by (unfold t2; cbn [tt_tables]; rewrite tab_entries_snoc, Ef; reflexivity).
        assert (SE : same_elems (priv_entries t2) (priv_entries t)).
        { intros x. unfold priv_entries. rewrite Em2, Et2. cbn [app]. rewrite !in_app_iff. tauto. }
        split; [|split; [exact SE|repeat split; try reflexivity; exact Em2]].
        constructor.
        - exact Hd.
        - unfold t2; cbn [tt_tables]. apply Forall_app. split; [exact Ht|constructor; [exact Hf|constructor]].
        - unfold t2; cbn [tt_tables]. unfold tables_ok. rewrite map_app. apply Forall_app. split; [exact Htok|].
          constructor; [|constructor]. unfold table_ok, abs_table. cbn [t_entries]. rewrite Ef. split; assumption.
        - rewrite Et2. apply uniq_app; [exact Hu| |].
          + apply nodup_keyseq_u; [apply (ssorted_nodup c ok); exact Hs|].
            intros a b Ha Hb' _. apply Hi; unfold priv_entries; apply in_or_app; left; assumption.
          + intros a b Ha Hb' E. specialize (Hcut1 a Ha). specialize (Hcut2 b Hb'). lia.
        - exists (tt_seq t). change (tt_seq t2) with (tt_seq t). split; [lia|]. split; [lia|]. split.
          + intros x Hx. rewrite Et2 in Hx. apply in_app_or in Hx as [Hx|Hx]; [specialize (Hcut1 x Hx)|specialize (Hcut2 x Hx)]; lia.
          + intros x Hx. rewrite Em2 in Hx. destruct Hx.
        - apply (seq_inj_same (priv_entries t)); [intros x; symmetry; apply SE|exact Hi].
        - exact Hmax. }
      destruct (tt_refs t =? 1).
      + destruct Hm as [(A & L & I) Hk0].
        destruct (MemOps.reset_ok ic mp mpok (tt_mem t) (MemInv.inv_head _ _ _ _ _ I)) as (d' & E & R). rewrite E.
        intros E2. injection E2 as <- <-. destruct (rep_empty_ok d' R) as [Hd Ed].
        apply (G d' (tt_cap t) (tt_refs t) Hd Ed).
      + destruct (MemOps.new_ok ic mp mpok) as (d' & E & R). rewrite E.
        intros E2. injection E2 as <- <-. destruct (rep_empty_ok d' R) as [Hd Ed].
        apply (G d' poolcap 1 Hd Ed).
  Qed.

  Lemma max_lt_64 : keyMaxSeq p < 2 ^ 64.
  Proof.
    destruct pok as (_ & _ & _ & _ & Hm & _). rewrite Hm. change (2 ^ 56) with 72057594037927936.
    change (2 ^ 64) with 18446744073709551616. lia.
  Qed.

  Lemma stamp_one s kt k v : stamp s [(kt, k, v)] = [{| e_uk := k; e_seq := s + 1; e_kind := kt; e_val := v |}].
  Proof. reflexivity. Qed.

  Lemma t_put_ok base wr t kt k v o t' r : tinv base t -> applied_rel base wr t -> put_pre t kt k o ->
    T_put t kt k v o = (t', r) ->
    match r with
    | TOk => tinv base t' /\ applied_rel base (wr ++ [(kt, k, v)]) t' /\ tt_closed t' = tt_closed t /\ tt_cfailed t' = tt_cfailed t
    | TErr e => e = ETable /\ pi_flush o = FlErr /\ t' = t
    | _ => False
    end.
  Proof.
    intros TI [Hseq SE] (Hkt & Wk & Hh & Hnext & Hfo). unfold t_put.
    pose proof max_lt_64 as H64. pose proof (del_le_val p pok) as Hdv.
    assert (Hle : kt <= keyTypeVal p) by (destruct Hkt as [-> | ->]; lia).
    rewrite (Codec.BatchProofs.u64_small (tt_seq t + 1)) by lia.
    rewrite (make_ikey_ok p k (tt_seq t + 1) kt Hnext Hle).
    set (need := lenN (encode_ikey {| uk := k; num := pack (tt_seq t + 1) kt |}) + lenN v).
    (* the state the record is put into: after the flush, if one is due *)
    assert (F : forall t1 r1,
      (if tt_cap t - MemDB.mdb_used (tt_mem t) <? need then T_flush t (pi_flush o) else (t, TOk)) = (t1, r1) ->
      match r1 with
      | TOk => tinv base t1 /\ same_elems (priv_entries t1) (priv_entries t) /\ tt_seq t1 = tt_seq t /\ tt_closed t1 = tt_closed t /\ tt_cfailed t1 = tt_cfailed t
      | TErr e => e = ETable /\ pi_flush o = FlErr /\ t1 = t
      | _ => False
      end).
    { intros t1 r1. destruct (tt_cap t - MemDB.mdb_used (tt_mem t) <? need).
      - intros E. pose proof (t_flush_ok base t (pi_flush o) t1 r1 TI Hfo E) as G.
        destruct r1; try exact G. destruct G as (G1 & G2 & G3 & G4 & G5 & _). auto.
      - intros E. injection E as <- <-. split; [exact TI|]. split; [intros x; tauto|]. auto. }
    destruct (if tt_cap t - MemDB.mdb_used (tt_mem t) <? need then T_flush t (pi_flush o) else (t, TOk)) as [t1 r1] eqn:Ef.
    specialize (F t1 r1 eq_refl).
    destruct r1 as [|e| |]; try (intros E; injection E as <- <-; exact F).
    destruct F as (TI1 & SE1 & Es1 & Ec1 & Ecf1).
    destruct TI1 as [Hm Ht Htok Hu (fs & Hb & Hfs & Hcut1 & Hcut2) Hi Hmax].
    assert (Hfresh : forall x, In x (mem_entries mp (Some (tt_mem t1))) -> e_seq x <= tt_seq t1)
      by (intros x Hx; specialize (Hcut2 x Hx); lia).
    assert (Hw : Forall (rec_wf p) [(kt, k, v)]) by (constructor; [split; assumption|constructor]).
    assert (Hhs : heights_okl mp [pi_h o]) by (constructor; [exact Hh|constructor]).
    destruct (putmem_recs_history c ok p pok seek_val mp mpok (tt_mem t1) [(kt, k, v)] (tt_seq t1) [pi_h o] Hm Hfresh Hw
                ltac:(cbn [length]; lia) Hhs) as (d' & hs' & E & Hm' & _ & Hin).
    cbn [Batch.putmem_recs] in E. rewrite (Codec.BatchProofs.u64_small (tt_seq t1 + 1)) in E by lia.
    rewrite Es1 in E. destruct (Batch.put_one p ic mp (tt_mem t1) [pi_h o] k (tt_seq t + 1) kt v) as [d2 hs2| |] eqn:Ep; try discriminate.
    injection E as -> ->. intros E. injection E as <- <-.
    rewrite stamp_one in Hin.
    set (ne := {| e_uk := k; e_seq := tt_seq t1 + 1; e_kind := kt; e_val := v |}) in *.
    set (t2 := mkTT (tt_seq t + 1) d' (if tt_cap t1 <? MemDB.mdb_used d' then pi_gcap o else tt_cap t1) (tt_refs t1)
                    (tt_tables t1) (tt_rec t1) (tt_closed t1) (tt_cfailed t1)).
    assert (Em2 : forall x, In x (mem_es t2) <-> In x (mem_es t1) \/ x = ne).
    { intros x. unfold mem_es, t2. cbn [tt_mem]. rewrite Hin. cbn [In]. clear. intuition. }
    assert (SE2 : forall x, In x (priv_entries t2) <-> In x (priv_entries t1) \/ x = ne).
    { intros x. unfold priv_entries. change (tt_tables t2) with (tt_tables t1). rewrite !in_app_iff, Em2. clear. tauto. }
    split; [|split; [|split; assumption]].
    - constructor.
      + exact Hm'.
      + exact Ht.
      + exact Htok.
      + exact Hu.
      + exists fs. change (tt_seq t2) with (tt_seq t + 1). change (tt_tables t2) with (tt_tables t1). split; [exact Hb|]. split; [lia|]. split; [exact Hcut1|].
        intros x Hx. apply Em2 in Hx as [Hx| ->]; [specialize (Hcut2 x Hx); lia|unfold ne; cbn [e_seq]; lia].
      + intros a b Ha Hb' Es. apply SE2 in Ha. apply SE2 in Hb'.
        assert (Hold : forall x, In x (priv_entries t1) -> e_seq x <= tt_seq t1).
        { intros x Hx. unfold priv_entries in Hx. apply in_app_or in Hx as [Hx|Hx]; [specialize (Hcut2 x Hx)|specialize (Hcut1 x Hx)]; lia. }
        destruct Ha as [Ha| ->], Hb' as [Hb'| ->]; try reflexivity.
        * apply Hi; assumption.
        * specialize (Hold a Ha). unfold ne in Es. cbn [e_seq] in Es. lia.
        * specialize (Hold b Hb'). unfold ne in Es. cbn [e_seq] in Es. lia.
      + change (tt_seq t2) with (tt_seq t + 1). exact Hnext.
    - split.
      + change (tt_seq t2) with (tt_seq t + 1). rewrite app_length. cbn [length]. lia.
      + intros x. rewrite SE2, (stamp_app base wr [(kt, k, v)]), in_app_iff, stamp_one, <- Hseq.
        rewrite (SE1 x), (SE x). cbn [In]. unfold ne. rewrite Es1. clear. intuition.
  Qed.

  Definition dflt_in : put_in := mkPI 1 FlErr 0.

  (* the preconditions of every put the call reaches (the table writer's contract is about the memdb as it is
     when that put flushes) *)
  Fixpoint puts_pre (t : ttxn) (recs : list Batch.brec) (os : list put_in) : Prop :=
    match recs with
    | [] => True
    | (kt, k, v) :: rest =>
        put_pre t kt k (hd dflt_in os) /\
        match T_put t kt k v (hd dflt_in os) with
        | (t1, TOk) => puts_pre t1 rest (tl os)
        | _ => True
        end
    end.

  Lemma applied_prefix t recs os : exists post, recs = applied c p mp rp t recs os ++ post.
  Proof.
    revert t os. induction recs as [|[[kt k] v] rest IH]; intros t os; [exists []; reflexivity|].
    cbn [applied]. destruct (t_put c p mp rp t kt k v (hd (mkPI 1 FlErr 0) os)) as [t1 [|e| |]].
    - destruct (IH t1 (tl os)) as [post E]. exists post. cbn [app]. rewrite <- E. reflexivity.
    - exists ((kt, k, v) :: rest). reflexivity.
    - exists ((kt, k, v) :: rest). reflexivity.
    - exists ((kt, k, v) :: rest). reflexivity.
  Qed.

  (* A Write applies exactly the records of [applied]: a PREFIX of the batch.  It returns nil iff that is the whole
     batch; otherwise the error of the flush that failed (the table could not be written), the record that needed
     the flush and everything after it are not applied, everything before it STAYS applied. *)
  Lemma t_puts_ok base : forall recs wr t os t' r, tinv base t -> applied_rel base wr t -> puts_pre t recs os ->
    T_puts t recs os = (t', r) ->
    tinv base t' /\ applied_rel base (wr ++ applied c p mp rp t recs os) t' /\
    tt_closed t' = tt_closed t /\ tt_cfailed t' = tt_cfailed t /\
    match r with
    | TOk => applied c p mp rp t recs os = recs
    | TErr e => e = ETable /\ (length (applied c p mp rp t recs os) < length recs)%nat
    | _ => False
    end.
  Proof.
    induction recs as [|[[kt k] v] rest IH]; intros wr t os t' r TI AR Hpre.
    - cbn [t_puts applied]. intros E. injection E as <- <-. rewrite app_nil_r. auto.
    - cbn [t_puts applied puts_pre] in *. destruct Hpre as [Hp Hrest]. fold dflt_in in *.
      destruct (T_put t kt k v (hd dflt_in os)) as [t1 r1] eqn:Ep.
      pose proof (t_put_ok base wr t kt k v (hd dflt_in os) t1 r1 TI AR Hp Ep) as G.
      destruct r1 as [|e| |]; try contradiction.
      + destruct G as (TI1 & AR1 & Ec & Ef). intros E.
        destruct (IH (wr ++ [(kt, k, v)]) t1 (tl os) t' r TI1 AR1 Hrest E) as (TI' & AR' & Ec' & Ef' & Hr).
        rewrite <- app_assoc in AR'. cbn [app] in AR'.
        split; [exact TI'|]. split; [exact AR'|]. split; [congruence|]. split; [congruence|].
        destruct r; try exact Hr.
        * rewrite Hr. reflexivity.
        * destruct Hr as [-> Hl]. split; [reflexivity|]. cbn [length]. lia.
      + destruct G as (-> & _ & ->). intros E. injection E as <- <-. rewrite app_nil_r.
        split; [exact TI|]. split; [exact AR|]. split; [reflexivity|]. split; [reflexivity|].
        split; [reflexivity|]. cbn [length]. lia.
  Qed.

  Local Notation wfb := (wf_bstate c p mp tp crc decompress fname ufc verify ri).

  (* the shared part while a transaction is (or may be) open: a well-formed byte state whose own memdb is empty
     and that has no frozen memdb (what OpenTransaction establishes and the write lock keeps), nothing stored
     above db.seq, no two stored entries with the same user key and sequence number *)
  Record sinv_of (db : bstate) (seq : N) : Prop := {
    si_wf : wfb db;
    si_frozen : bs_frozen db = None;
    si_mem : mem_entries mp (bs_mem db) = [];
    si_le : forall x, In x (all_entries (absS db)) -> e_seq x <= seq;
    si_uniq : uniq_in (all_entries (absS db));
    si_max : seq <= keyMaxSeq p
  }.
  Definition sinv (w : tworld) : Prop := sinv_of (tw_db w) (tw_seq w).

  Definition winv_of (db : bstate) (seq : N) (tr : option ttxn) : Prop :=
    sinv_of db seq /\ match tr with Some t => tt_closed t = false /\ tinv seq t | None => True end.
  Definition winv (w : tworld) : Prop := winv_of (tw_db w) (tw_seq w) (tw_tr w).

  (* the L1 state Transaction.Get / NewIterator read: the private memdb as the write buffer, the private tables
     as aux level, the version *)
  Definition txn_state (t : ttxn) (st : bstate) : lstate :=
    {| st_mem := mem_es t; st_frozen := []; st_aux := map atab (tt_tables t);
       st_levels := map (map atab) (bs_levels st) |}.

  Lemma abs_levels st : st_levels (absS st) = map (map atab) (bs_levels st).
  Proof. reflexivity. Qed.

  Lemma shared_entries_eq w : sinv w ->
    all_entries (absS (tw_db w)) = concat (map t_entries (concat (map (map atab) (bs_levels (tw_db w))))).
  Proof.
    intros [_ Hf Hm _ _ _]. unfold all_entries, all_tables, abs. cbn [st_mem st_frozen st_aux st_levels app].
    rewrite Hm, Hf. reflexivity.
  Qed.

  Lemma txn_state_entries w t : sinv w ->
    all_entries (txn_state t (tw_db w)) = priv_entries t ++ all_entries (absS (tw_db w)).
  Proof.
    intros S. rewrite (shared_entries_eq w S). unfold all_entries, all_tables, txn_state, priv_entries, tab_entries, level_entries.
    cbn [st_mem st_frozen st_aux st_levels app]. rewrite map_app, concat_app, app_assoc. reflexivity.
  Qed.

  Lemma in_level_all (lvls : list (list table)) y b :
    In y (map level_entries lvls) -> In b y -> In b (concat (map t_entries (concat lvls))).
  Proof.
    intros Hy Hb. apply in_map_iff in Hy as [ts [<- Hts]]. unfold level_entries in Hb.
    apply in_concat in Hb as [es [Hes Hb]]. apply in_map_iff in Hes as [tb [<- Htb]].
    apply in_concat. exists (t_entries tb). split; [|exact Hb]. apply in_map. apply in_concat. exists ts. split; assumption.
  Qed.

  (* the transaction's layout is a well-formed L1 state *)
  Lemma txn_state_wf w t : sinv w -> tinv (tw_seq w) t -> wf_state c p (txn_state t (tw_db w)).
  Proof.
    intros S [Hm Ht Htok Hu (fs & Hb & Hfs & Hcut1 & Hcut2) Hi Hmax].
    pose proof (shared_entries_eq w S) as ES.
    destruct S as [[_ _ _ Wa] Hf Hme Hle Hun _]. destruct Wa as [W1 W2 W3 W4 W5 W6].
    destruct (mem_ok_entries c ok p pok seek_val mp mpok _ Hm) as [Hs Hk]. fold (mem_es t) in Hs, Hk.
    assert (Hsh : forall y b, In y (map level_entries (map (map atab) (bs_levels (tw_db w)))) -> In b y -> e_seq b <= tw_seq w).
    { intros y b Hy Hb'. apply Hle. rewrite ES. eapply in_level_all; eassumption. }
    constructor; unfold txn_state; cbn [st_mem st_frozen st_aux st_levels].
    - split; assumption.
    - split; [exact I|constructor].
    - split; assumption.
    - rewrite <- abs_levels. exact W4.
    - rewrite <- abs_levels. exact W5.
    - unfold comps in *. cbn [st_mem st_frozen st_aux st_levels chain_newer] in *.
      rewrite abs_levels in W6. destruct W6 as [_ [_ [_ W6]]].
      split.
      { constructor; [intros a b _ []|]. constructor.
        - intros a b Ha Hb' _. specialize (Hcut2 a Ha). specialize (Hcut1 b Hb'). lia.
        - apply Forall_forall. intros y Hy a b Ha Hb' _. specialize (Hcut2 a Ha). specialize (Hsh y b Hy Hb'). lia. }
      split; [apply Forall_forall; intros y _ a b []|].
      split; [|exact W6].
      apply Forall_forall. intros y Hy a b Ha Hb' _. specialize (Hcut1 a Ha). specialize (Hsh y b Hy Hb'). lia.
  Qed.

  Local Notation AUX := (aux_state c mp tp crc decompress fname ufc verify ri).

  Lemma lsm_get_txn_state t st k s : mem_entries mp (bs_mem st) = [] -> bs_frozen st = None ->
    txn_lsm_get c p (mem_es t) (AUX (tt_tables t) st) k s = lsm_get c p (txn_state t st) k s.
  Proof.
    intros Hm Hf. unfold txn_lsm_get, lsm_get, aux_state, txn_state. cbn [st_mem st_frozen st_aux st_levels].
    rewrite Hm, Hf. cbn [mem_entries comp_get find_ge]. reflexivity.
  Qed.

  (* Transaction.Get computed on the bytes (private memdb arrays, private table files, the version's files)
     returns the newest visible entry among the transaction's own entries and everything stored in the DB *)
  Theorem txn_get_newest w t k : winv w -> tw_tr w = Some t -> wf_bytes k ->
    t_get c p mp tp crc decompress fname ufc verify w k =
    Some (BRes (group_res p (newest c k (tt_seq t) (priv_entries t ++ all_entries (absS (tw_db w))) None))).
  Proof.
    intros [S Ht] Et Wk. rewrite Et in Ht. destruct Ht as [Hc TI]. unfold t_get. rewrite Et, Hc.
    rewrite (db_get_aux_refines c ok p pok seek_val mp mpok tp crc decompress fname ufc verify ri (tt_mem t) (tt_tables t) (tw_db w) k
               (tt_seq t) Wk (ti_max _ _ TI) (ti_mem _ _ TI) (si_wf _ _ S) (ti_tabs _ _ TI)).
    fold (mem_es t). rewrite (lsm_get_txn_state t (tw_db w) k (tt_seq t) (si_mem _ _ S) (si_frozen _ _ S)).
    rewrite (get_correct c ok p pok _ k (tt_seq t) (txn_state_wf w t S TI)).
    rewrite (txn_state_entries w t S). reflexivity.
  Qed.

  (* ... hence: the base at open overlaid with the records applied so far.  [m] is any plain map that answers the
     reads of the shared state at db.seq (by C01_get_is_map_bytes: the map of the committed writes). *)
  Theorem txn_get_overlay w t wr m k : winv w -> tw_tr w = Some t -> applied_rel (tw_seq w) wr t ->
    (forall k', History.res p (newest c k' (tw_seq w) (all_entries (absS (tw_db w))) None) = a_get c k' m) ->
    wf_bytes k ->
    option_map bapi (t_get c p mp tp crc decompress fname ufc verify w k) =
    Some (Some (a_get c k (fold_left (a_apply c p) wr m))).
  Proof.
    intros WI Et [Hseq SE] Hbase Wk. rewrite (txn_get_newest w t k WI Et Wk). cbn [option_map bapi]. do 2 f_equal.
    destruct WI as [S _].
    change (api_of (group_res p ?z)) with (History.res p z).
    rewrite Hseq.
    rewrite <- (hist_recs c ok p k wr (tw_seq w) (all_entries (absS (tw_db w))) m (si_le _ _ S) (Hbase k)).
    f_equal. symmetry. apply (newest_same_elems c ok).
    - apply uniq_in_app_stamp; [exact (si_uniq _ _ S)|exact (si_le _ _ S)].
    - intros x. rewrite !in_app_iff, (SE x). tauto.
  Qed.

  Lemma ins_num_perm f l : Permutation (ins_num f l) (f :: l).
  Proof.
    induction l as [|x l IH]; cbn [ins_num]; [apply Permutation_refl|].
    destruct (tf_num x <? tf_num f); [apply Permutation_refl|].
    apply Permutation_trans with (x :: f :: l); [apply perm_skip; exact IH|apply perm_swap].
  Qed.

  Lemma sort_by_num_perm l : Permutation (sort_by_num l) l.
  Proof.
    induction l as [|f l IH]; cbn [sort_by_num fold_right]; [apply Permutation_refl|].
    apply Permutation_trans with (f :: sort_by_num l); [apply ins_num_perm|apply perm_skip; exact IH].
  Qed.

  Lemma tab_entries_perm l l' : Permutation l l' -> Permutation (tab_entries l) (tab_entries l').
  Proof.
    intros H. unfold tab_entries, level_entries. rewrite !map_map, <- !flat_map_concat_map.
    apply Permutation_flat_map. exact H.
  Qed.

  Lemma tab_entries_app a b : tab_entries (a ++ b) = tab_entries a ++ tab_entries b.
  Proof. unfold tab_entries, level_entries. rewrite !map_app, concat_app. reflexivity. Qed.

  Definition new_l0 (st : bstate) (ts : list tfile) : list tfile := sort_by_num (hd [] (bs_levels st) ++ ts).
  Definition installed (st : bstate) (ts : list tfile) : bstate :=
    db_with_levels st (install_tables (bs_levels st) ts).

  Lemma installed_levels st ts : ts <> [] ->
    bs_levels (installed st ts) = new_l0 st ts :: tl (bs_levels st).
  Proof.
    intros Hne. unfold installed, db_with_levels, install_tables, new_l0. cbn [bs_levels].
    destruct ts as [|f ts]; [congruence|]. destruct (bs_levels st) as [|l0 rest]; reflexivity.
  Qed.

  (* what the shared state holds after the transaction's tables entered level 0: the old entries and the
     transaction's, nothing else *)
  Lemma installed_entries w t : sinv w -> tt_tables t <> [] ->
    forall x, In x (all_entries (absS (installed (tw_db w) (tt_tables t)))) <->
              In x (tab_entries (tt_tables t)) \/ In x (all_entries (absS (tw_db w))).
  Proof.
    intros S Hne x. rewrite (shared_entries_eq w S).
    unfold all_entries, all_tables, abs. cbn [st_mem st_frozen st_aux st_levels app].
    change (bs_mem (installed (tw_db w) (tt_tables t))) with (bs_mem (tw_db w)).
    change (bs_frozen (installed (tw_db w) (tt_tables t))) with (bs_frozen (tw_db w)).
    rewrite (si_mem _ _ S), (si_frozen _ _ S). cbn [mem_entries app].
    rewrite (installed_levels _ _ Hne). cbn [map concat]. rewrite map_app, concat_app, in_app_iff.
    fold (level_entries (map atab (new_l0 (tw_db w) (tt_tables t)))). fold (tab_entries (new_l0 (tw_db w) (tt_tables t))).
    assert (P : Permutation (tab_entries (new_l0 (tw_db w) (tt_tables t)))
                            (tab_entries (hd [] (bs_levels (tw_db w))) ++ tab_entries (tt_tables t))).
    { rewrite <- tab_entries_app. apply tab_entries_perm. apply sort_by_num_perm. }
    assert (E : forall y, In y (tab_entries (new_l0 (tw_db w) (tt_tables t))) <->
                          In y (tab_entries (hd [] (bs_levels (tw_db w)))) \/ In y (tab_entries (tt_tables t))).
    { intros y. rewrite <- in_app_iff. split; apply Permutation_in; [exact P|apply Permutation_sym; exact P]. }
    rewrite E. destruct (bs_levels (tw_db w)) as [|l0 rest]; cbn [hd tl map concat].
    - unfold tab_entries at 1. cbn [map level_entries concat]. cbn [In]. tauto.
    - rewrite map_app, concat_app, in_app_iff. unfold tab_entries, level_entries. tauto.
  Qed.

  Lemma seq_inj_uniq_in l : seq_inj l -> uniq_in l.
  Proof. intros H a b Ha Hb _ Es. apply H; assumption. Qed.

  (* after the transaction's tables entered level 0 and db.seq was set to tr.seq the shared state satisfies the
     shared invariant again *)
  Lemma installed_sinv w t w' : sinv w -> tinv (tw_seq w) t -> tt_tables t <> [] ->
    tw_db w' = installed (tw_db w) (tt_tables t) -> tw_seq w' = tt_seq t -> sinv w'.
  Proof.
    intros S TI Hne Edb Eseq.
    pose proof (installed_entries w t S Hne) as IE.
    pose proof (shared_entries_eq w S) as ES.
    destruct TI as [Hm Ht Htok Hu (fs & Hb & Hfs & Hcut1 & Hcut2) Hi Hmax].
    assert (Hpriv : forall a, In a (tab_entries (tt_tables t)) -> tw_seq w < e_seq a <= tt_seq t)
      by (intros a Ha; specialize (Hcut1 a Ha); lia).
    destruct S as [[Wm Wf Wt Wa] Hf Hme Hle Hun _].
    set (ts := tt_tables t) in *. set (db := tw_db w) in *.
    assert (EL : bs_levels (installed db ts) = new_l0 db ts :: tl (bs_levels db)) by (apply installed_levels; exact Hne).
    assert (P0 : Permutation (new_l0 db ts) (hd [] (bs_levels db) ++ ts)) by apply sort_by_num_perm.
    assert (PE : Permutation (tab_entries (new_l0 db ts)) (tab_entries (hd [] (bs_levels db)) ++ tab_entries ts))
      by (rewrite <- tab_entries_app; apply tab_entries_perm; exact P0).
    assert (Hl0 : forall a, In a (tab_entries (hd [] (bs_levels db))) -> In a (all_entries (absS db))).
    { intros a Ha. rewrite ES. destruct (bs_levels db) as [|l0 rest]; cbn [hd] in Ha; [destruct Ha|].
      cbn [map concat]. rewrite map_app, concat_app. apply in_or_app. left. exact Ha. }
    destruct Wa as [W1 W2 W3 W4 W5 W6].
    assert (W4' : tables_ok c p (map atab (hd [] (bs_levels db))) /\ uniq (tab_entries (hd [] (bs_levels db)))).
    { unfold abs in W4. cbn [st_levels] in W4. destruct (bs_levels db); exact W4. }
    constructor.
    - constructor.
      + rewrite Edb. exact Wm.
      + rewrite Edb. exact Wf.
      + rewrite Edb, EL. constructor.
        * eapply Permutation_Forall; [apply Permutation_sym; exact P0|]. apply Forall_app. split; [|exact Ht].
          destruct (bs_levels db); [constructor|]. inversion Wt; assumption.
        * destruct (bs_levels db); [constructor|]. inversion Wt; assumption.
      + rewrite Edb. unfold abs. rewrite EL. constructor; cbn [st_mem st_frozen st_aux st_levels map hd tl].
        * exact W1.
        * exact W2.
        * exact W3.
        * split.
          -- unfold tables_ok. eapply Permutation_Forall; [apply Permutation_map; apply Permutation_sym; exact P0|].
             rewrite map_app. apply Forall_app. split; [exact (proj1 W4')|exact Htok].
          -- fold (tab_entries (new_l0 db ts)). unfold uniq.
             eapply Permutation_NoDup; [apply Permutation_map; apply Permutation_sym; exact PE|].
             apply uniq_app; [exact (proj2 W4')|exact Hu|].
             intros a b Ha Hb' E. specialize (Hle a (Hl0 a Ha)). specialize (Hpriv b Hb'). lia.
        * unfold abs in W5. cbn [st_levels] in W5. destruct (bs_levels db); exact W5.
        * unfold comps in *. unfold abs in W6. cbn [st_mem st_frozen st_aux st_levels chain_newer map] in *.
          change (bs_mem (installed db ts)) with (bs_mem db). change (bs_frozen (installed db ts)) with (bs_frozen db).
          rewrite Hme, Hf in *. cbn [mem_entries] in *.
          split; [apply Forall_forall; intros y _ a b []|].
          split; [apply Forall_forall; intros y _ a b []|].
          split; [apply Forall_forall; intros y _ a b []|].
          destruct (bs_levels db) as [|l0 rest] eqn:EB; cbn [tl map hd] in *; [split; [constructor|exact I]|].
          destruct W6 as [_ [_ [_ [N0 Hch]]]]. split; [|exact Hch].
          apply Forall_forall. intros y Hy a b Ha Hb' Eu.
          fold (tab_entries (new_l0 db ts)) in Ha. apply (Permutation_in _ PE) in Ha. apply in_app_or in Ha as [Ha|Ha].
          -- rewrite Forall_forall in N0. exact (N0 y Hy a b Ha Hb' Eu).
          -- specialize (Hpriv a Ha).
             assert (In b (all_entries (absS db))).
             { rewrite ES. cbn [map concat]. rewrite map_app, concat_app. apply in_or_app. right.
               eapply in_level_all; eassumption. }
             specialize (Hle b H). lia.
    - rewrite Edb. exact Hf.
    - rewrite Edb. exact Hme.
    - intros x Hx. rewrite Edb in Hx. rewrite Eseq. apply IE in Hx as [Hx|Hx]; [specialize (Hpriv x Hx)|specialize (Hle x Hx)]; lia.
    - intros a b Ha Hb' Eu Es. rewrite Edb in Ha, Hb'. apply IE in Ha. apply IE in Hb'.
      destruct Ha as [Ha|Ha], Hb' as [Hb'|Hb'].
      + apply Hi; [unfold priv_entries; apply in_or_app; right; exact Ha|unfold priv_entries; apply in_or_app; right; exact Hb'|exact Es].
      + specialize (Hpriv a Ha). specialize (Hle b Hb'). lia.
      + specialize (Hpriv b Hb'). specialize (Hle a Ha). lia.
      + apply Hun; assumption.
    - rewrite Eseq. exact Hmax.
  Qed.

  (* the byte world against a state of the history-level machine: same sequence number, the same stored entries
     (as sets), and the open transaction holds exactly the records applied so far, stamped above db.seq *)
  Definition wrel_of (db : bstate) (seq : N) (tr : option ttxn) (s : tstate) : Prop :=
    h_seq (ts_h s) = seq /\ same_elems (h_store (ts_h s)) (all_entries (absS db)) /\
    match tr, ts_txn s with
    | Some t, Some a => exists wr, a = mk_txn seq wr /\ applied_rel seq wr t
    | None, None => True
    | _, _ => False
    end.
  Definition wrel (w : tworld) (s : tstate) : Prop := wrel_of (tw_db w) (tw_seq w) (tw_tr w) s.

  Lemma tinv_ext base t t' : tt_seq t' = tt_seq t -> tt_mem t' = tt_mem t -> tt_tables t' = tt_tables t ->
    tinv base t -> tinv base t'.
  Proof.
    intros E1 E2 E3 [H1 H2 H3 H4 H5 H6 H7].
    constructor; unfold priv_entries, mem_es in *; rewrite ?E1, ?E2, ?E3; assumption.
  Qed.

  Lemma applied_rel_ext base wr t t' : tt_seq t' = tt_seq t -> tt_mem t' = tt_mem t -> tt_tables t' = tt_tables t ->
    applied_rel base wr t -> applied_rel base wr t'.
  Proof.
    intros E1 E2 E3 [H1 H2]. split; unfold priv_entries, mem_es in *; rewrite ?E1, ?E2, ?E3; assumption.
  Qed.

  (* the preconditions of a step: what the environment contributes obeys its contract *)
  Definition bop_pre (w : tworld) (o : bop) : Prop :=
    match o with
    | BPut kt k v i => match tw_tr w with Some t => put_pre t kt k i | None => True end
    | BWrite b os => match tw_tr w, Batch.batch_records b with Some t, Some recs => puts_pre t recs os | _, _ => True end
    | BCommit fo atts => match tw_tr w with Some t => flush_ok t fo | None => True end
    | BEnv st' => sinv_of st' (tw_seq w)
    | _ => True
    end.

  Local Notation ABS := (abs_ops c p mp tp crc decompress fname ufc verify ri rp).
  Local Notation BSTEP := (bstep c p mp rp false).

  Definition step_ok (w : tworld) (s : tstate) (o : bop) : Prop :=
    let w' := fst (BSTEP w o) in wrel w' (xrun s (ABS w o)) /\ winv w'.

  Lemma fresh_tinv base d : MemOps.rep ic mp d [] [] [] 0 -> base <= keyMaxSeq p ->
    forall cap, tinv base (mkTT base d cap 1 [] SR.sr_empty false false).
  Proof.
    intros R Hb cap. destruct (rep_empty_ok d R) as [Hd Ed].
    assert (Em : mem_es (mkTT base d cap 1 [] SR.sr_empty false false) = [])
      by (unfold mem_es; cbn [tt_mem mem_entries]; rewrite Ed; reflexivity).
    constructor; cbn [tt_mem tt_tables tt_seq].
    - exact Hd.
    - constructor.
    - constructor.
    - constructor.
    - exists base. split; [lia|]. split; [lia|]. split; [intros x []|]. intros x Hx. rewrite Em in Hx. destruct Hx.
    - intros a b Ha. unfold priv_entries in Ha. rewrite Em in Ha. destruct Ha.
    - exact Hb.
  Qed.

  Lemma step_open w s cap : wrel w s -> winv w -> step_ok w s (BOpen cap).
  Proof.
    intros (Hs & Hst & Htr) [S Ht]. unfold step_ok, abs_ops, bstep, w_open.
    destruct (tw_tr w) as [t|] eqn:Et.
    - cbn [fst xrun fold_left]. split; [split; [exact Hs|split; [exact Hst|rewrite Et; exact Htr]]|split; [exact S|rewrite Et; exact Ht]].
    - destruct (open_ready (tw_db w)).
      + destruct (MemOps.new_ok ic mp mpok) as (d & E & R). rewrite E. cbn [fst xrun fold_left xstep].
        unfold wrel, winv. cbn [tw_with_tr tw_db tw_seq tw_tr].
        destruct s as [h tx]. cbn [ts_h ts_txn] in *. destruct tx; [contradiction|]. cbn [tstep ts_txn ts_h].
        split.
        * split; [exact Hs|]. split; [exact Hst|]. exists []. split; [rewrite open_txn_mk, Hs; reflexivity|].
          destruct (rep_empty_ok d R) as [_ Ed]. split; [cbn [tt_seq length]; lia|].
          intros x. unfold priv_entries, mem_es. cbn [tt_mem tt_tables mem_entries stamp]. rewrite Ed. cbn. tauto.
        * split; [exact S|]. split; [reflexivity|]. apply fresh_tinv; [exact R|exact (si_max _ _ S)].
      + cbn [fst xrun fold_left]. split; [split; [exact Hs|split; [exact Hst|rewrite Et; exact Htr]]|split; [exact S|rewrite Et; exact I]].
  Qed.

  (* a world that differs only in fields the relation and the invariant do not read *)
  Lemma world_same w w' s : tw_db w' = tw_db w -> tw_seq w' = tw_seq w -> tw_tr w' = tw_tr w ->
    wrel w s -> winv w -> wrel w' s /\ winv w'.
  Proof. unfold wrel, winv. intros -> -> ->. auto. Qed.

  (* what the relation and the invariant say of an open transaction ... *)
  Lemma open_inv w s t : wrel w s -> winv w -> tw_tr w = Some t ->
    tt_closed t = false /\ tinv (tw_seq w) t /\
    exists wr, ts_txn s = Some (mk_txn (tw_seq w) wr) /\ applied_rel (tw_seq w) wr t.
  Proof.
    intros (_ & _ & Htr) [_ Ht] Et. rewrite Et in Htr, Ht. destruct Ht as [Hc TI].
    destruct (ts_txn s) as [a|]; [|contradiction]. destruct Htr as (wr & -> & AR). eauto.
  Qed.

  (* ... and what is needed to put the state t', holding the records wr', in its place *)
  Lemma open_step w s s' wr' t' : wrel w s -> winv w -> ts_h s' = ts_h s -> ts_txn s' = Some (mk_txn (tw_seq w) wr') ->
    applied_rel (tw_seq w) wr' t' -> tinv (tw_seq w) t' -> tt_closed t' = false ->
    wrel (tw_with_tr w (Some t')) s' /\ winv (tw_with_tr w (Some t')).
  Proof.
    intros (Hs & Hst & _) [S _] Eh Et AR TI Hc. unfold wrel, winv, wrel_of. cbn [tw_with_tr tw_db tw_seq tw_tr]. rewrite Eh, Et.
    split; [|split; [exact S|split; assumption]]. split; [exact Hs|]. split; [exact Hst|]. exists wr'. split; [reflexivity|exact AR].
  Qed.

  Lemma tstep_write s b wr recs : ts_txn s = Some (mk_txn b wr) ->
    ts_h (tstep s (TWrite recs)) = ts_h s /\ ts_txn (tstep s (TWrite recs)) = Some (mk_txn b (wr ++ recs)).
  Proof. intros E. unfold tstep. rewrite E. cbn [ts_h ts_txn]. rewrite txn_write_mk. split; reflexivity. Qed.

  Lemma step_put w s kt k v i : wrel w s -> winv w -> bop_pre w (BPut kt k v i) -> step_ok w s (BPut kt k v i).
  Proof.
    intros R WI Hpre. unfold step_ok, abs_ops, bstep, w_put, on_open. cbn [bop_pre] in Hpre.
    destruct (tw_tr w) as [t|] eqn:Et; [|cbn [fst xrun fold_left]; split; assumption].
    destruct (open_inv w s t R WI Et) as (Hc & TI & wr & Ea & AR). rewrite Hc.
    destruct (T_put t kt k v i) as [t' r] eqn:Ep. cbn [fst].
    pose proof (t_put_ok (tw_seq w) wr t kt k v i t' r TI AR Hpre Ep) as G.
    destruct r as [|e| |]; try contradiction.
    - destruct G as (TI' & AR' & Ec' & _). cbn [xrun fold_left xstep].
      destruct (tstep_write s _ wr [(kt, k, v)] Ea) as [Eh Etx].
      apply (open_step w s _ _ t' R WI Eh Etx AR' TI'). congruence.
    - destruct G as (_ & _ & ->). cbn [xrun fold_left].
      apply (world_same w _ s); [reflexivity|reflexivity|symmetry; exact Et|exact R|exact WI].
  Qed.

  Lemma step_write w s b os : wrel w s -> winv w -> bop_pre w (BWrite b os) -> step_ok w s (BWrite b os).
  Proof.
    intros R WI Hpre. unfold step_ok, abs_ops, bstep, w_write, on_open. cbn [bop_pre] in Hpre.
    destruct (Batch.batch_len b =? 0); [cbn [fst xrun fold_left]; split; assumption|].
    destruct (tw_tr w) as [t|] eqn:Et; [|cbn [fst xrun fold_left]; split; assumption].
    destruct (open_inv w s t R WI Et) as (Hc & TI & wr & Ea & AR). rewrite Hc.
    destruct (Batch.batch_records b) as [recs|].
    2:{ cbn [fst xrun fold_left]. apply (world_same w _ s); [reflexivity|reflexivity|symmetry; exact Et|exact R|exact WI]. }
    destruct (T_puts t recs os) as [t' r] eqn:Ep. cbn [fst xrun fold_left xstep].
    destruct (t_puts_ok (tw_seq w) recs wr t os t' r TI AR Hpre Ep) as (TI' & AR' & Ec' & _ & _).
    destruct (tstep_write s _ wr (applied c p mp rp t recs os) Ea) as [Eh Etx].
    apply (open_step w s _ _ t' R WI Eh Etx AR' TI'). congruence.
  Qed.

  Lemma step_iter w s : wrel w s -> winv w -> step_ok w s BIterOpen /\ step_ok w s BIterRelease.
  Proof.
    intros R WI. unfold step_ok, abs_ops, bstep, w_iter_open, w_iter_release, on_open. cbn [xrun fold_left].
    destruct (tw_tr w) as [t|] eqn:Et; [|cbn [fst]; split; split; assumption].
    destruct (open_inv w s t R WI Et) as (Hc & TI & wr & Ea & AR). rewrite Hc. cbn [fst].
    assert (G : forall n, wrel (tw_with_tr w (Some (tt_with_refs t n))) s /\ winv (tw_with_tr w (Some (tt_with_refs t n)))).
    { intros n. apply (open_step w s s wr _ R WI eq_refl Ea); [apply (applied_rel_ext _ _ t); auto|apply (tinv_ext _ t); auto|exact Hc]. }
    split; apply G.
  Qed.

  Lemma session_commit_facts w r seq lvls a w' r' b : session_commit rp w r seq lvls a = Some (w', r', b) ->
    tw_seq w' = tw_seq w /\ tw_tr w' = tw_tr w /\
    (b = true -> tw_db w' = db_with_levels (tw_db w) lvls) /\ (b = false -> tw_db w' = tw_db w).
  Proof.
    unfold session_commit. destruct (tw_mfail w || ai_rot a).
    - destruct (SR.encode rp (snapshot_rec rp w seq (ai_nf a) lvls)); [|discriminate].
      destruct (ai_ok a); intros E; injection E as <- <- <-; cbn [tw_with_man tw_seq tw_tr tw_db];
        repeat split; try reflexivity; try discriminate.
    - destruct (SR.encode rp (edit_rec rp r (ai_nf a))); [|discriminate].
      destruct (ai_ok a); intros E; injection E as <- <- <-; cbn [tw_with_man tw_seq tw_tr tw_db];
        repeat split; try reflexivity; try discriminate.
  Qed.

  Lemma commit_loop_facts n : forall w t atts w' t' b, commit_loop rp false n w t atts = Some (w', t', b) ->
    tw_seq w' = tw_seq w /\ tw_tr w' = tw_tr w /\ tt_seq t' = tt_seq t /\ tt_mem t' = tt_mem t /\
    tt_tables t' = tt_tables t /\ tt_closed t' = tt_closed t /\
    (b = true -> tw_db w' = installed (tw_db w) (tt_tables t)) /\ (b = false -> tw_db w' = tw_db w).
  Proof.
    induction n as [|n IH]; intros w t atts w' t' b; cbn [commit_loop].
    - intros E. injection E as <- <- <-. repeat split; try reflexivity. discriminate.
    - destruct (session_commit rp w (tt_rec t) (Some (tt_seq t)) (install_tables (bs_levels (tw_db w)) (tt_tables t)) (hd no_att atts))
        as [[[w1 r1] b1]|] eqn:Es; [|discriminate].
      destruct (session_commit_facts _ _ _ _ _ _ _ _ Es) as (E1 & E2 & E3 & E4).
      destruct b1.
      + intros E. injection E as <- <- <-. cbn [tt_with_rec tt_seq tt_mem tt_tables tt_closed].
        split; [exact E1|]. split; [exact E2|]. split; [reflexivity|]. split; [reflexivity|]. split; [reflexivity|].
        split; [reflexivity|]. split; [intros _; apply E3; reflexivity|discriminate].
      + intros E. apply IH in E as (F1 & F2 & F3 & F4 & F5 & F6 & F7 & F8).
        cbn [tt_failed tt_with_rec tt_seq tt_mem tt_tables tt_closed] in *. specialize (E4 eq_refl).
        repeat split; try congruence.
        * intros Hb. rewrite (F7 Hb), E4. reflexivity.
        * intros Hb. rewrite (F8 Hb). exact E4.
  Qed.

  Lemma stamp_nil_inv base wr : same_elems [] (stamp base wr) -> wr = [].
  Proof.
    destruct wr as [|[[kd k] v] wr]; [reflexivity|]. intros H. exfalso. cbn [stamp] in H.
    apply (proj2 (H {| e_uk := k; e_seq := base + 1; e_kind := kd; e_val := v |})). left. reflexivity.
  Qed.

  Lemma step_commit w s fo atts : wrel w s -> winv w -> bop_pre w (BCommit fo atts) -> step_ok w s (BCommit fo atts).
  Proof.
    intros R WI Hpre. unfold step_ok, abs_ops, bstep, w_commit. cbn [bop_pre] in Hpre.
    destruct (tw_tr w) as [t0|] eqn:Et; [|cbn [fst xrun fold_left]; split; assumption].
    destruct (open_inv w s t0 R WI Et) as (Hc & TI0 & wr & Ea & AR0). rewrite Hc.
    pose proof WI as [S _]. pose proof R as (Hs & Hst & _).
    destruct s as [h tx]. cbn [ts_h ts_txn] in *. subst tx.
    assert (Same : forall t', tt_seq t' = tt_seq t0 -> tt_closed t' = false -> tinv (tw_seq w) t' ->
                     same_elems (priv_entries t') (priv_entries t0) ->
              wrel (tw_with_tr w (Some t')) {| ts_h := h; ts_txn := Some (mk_txn (tw_seq w) wr) |} /\ winv (tw_with_tr w (Some t'))).
    { intros t' E1 E2 TI' SE'. apply (open_step w _ _ wr t' R WI eq_refl eq_refl); [|exact TI'|exact E2].
      destruct AR0 as [A1 A2]. split; [congruence|]. intros x. rewrite (SE' x). apply A2. }
    destruct (T_flush t0 fo) as [t r] eqn:Ef.
    pose proof (t_flush_ok (tw_seq w) t0 fo t r TI0 Hpre Ef) as G.
    destruct r as [|e| |]; try contradiction.
    2:{ destruct G as (_ & _ & ->). cbn [fst xrun fold_left]. apply Same; auto. intros x; tauto. }
    destruct G as (TI & SE & Eseq & Ecl & Ecf & Em).
    destruct (tt_tables t) as [|f0 ts0] eqn:Etab.
    - (* nothing to commit *)
      cbn [fst xrun fold_left xstep tstep ts_txn ts_h].
      assert (Ewr : wr = []).
      { apply (stamp_nil_inv (tw_seq w)). intros x. destruct AR0 as [_ A2]. rewrite <- (A2 x), <- (SE x).
        unfold priv_entries. rewrite Em, Etab. cbn. tauto. }
      subst wr. unfold wrel, winv. cbn [tw_with_tr tw_db tw_seq tw_tr ts_h ts_txn commit_h publish_seq publish_version h_seq h_store mk_txn t_seq t_writes length stamp].
      split.
      + unfold wrel_of, commit_h, publish_seq, publish_version, mk_txn. cbn [ts_h ts_txn h_seq h_store t_seq t_writes length stamp].
        split; [lia|]. split; [rewrite app_nil_r; exact Hst|exact I].
      + split; [exact S|exact I].
    - set (t1 := tt_with_rec t (SR.set_seq rp (tt_rec t) (tt_seq t))).
      destruct (commit_loop rp false 3 w t1 atts) as [[[w' t'] b]|] eqn:El.
      2:{ cbn [fst xrun fold_left]. split; assumption. }
      destruct (commit_loop_facts 3 w t1 atts w' t' b El) as (F1 & F2 & F3 & F4 & F5 & F6 & F7 & F8).
      cbn [t1 tt_with_rec tt_seq tt_mem tt_tables tt_closed] in F3, F4, F5, F6, F7.
      destruct b.
      + (* committed *)
        cbn [fst xrun fold_left xstep tstep ts_txn ts_h]. specialize (F7 eq_refl).
        assert (Hne : tt_tables t <> []) by (rewrite Etab; discriminate).
        set (w2 := tw_with_tr (tw_with_seq w' (tt_seq t')) None).
        assert (D2 : tw_db w2 = installed (tw_db w) (tt_tables t)) by exact F7.
        assert (S2 : tw_seq w2 = tt_seq t) by exact F3.
        pose proof (installed_sinv w t w2 S TI Hne D2 S2) as SI.
        pose proof (installed_entries w t S Hne) as IE.
        split.
        * unfold wrel, wrel_of. rewrite D2, S2. change (tw_tr w2) with (@None ttxn).
          cbn [ts_h ts_txn commit_h publish_seq publish_version h_seq h_store mk_txn t_seq t_writes].
          destruct AR0 as [A1 A2]. split; [congruence|]. split; [|exact I].
          intros x. rewrite in_app_iff, (IE x), (Hst x), <- (A2 x), <- (SE x). unfold priv_entries. rewrite Em. cbn [app]. tauto.
        * split; [exact SI|exact I].
      + (* every attempt failed: still open *)
        cbn [fst xrun fold_left]. specialize (F8 eq_refl).
        assert (TI' : tinv (tw_seq w) t') by (apply (tinv_ext _ t); assumption).
        assert (SE' : same_elems (priv_entries t') (priv_entries t0)).
        { intros x. rewrite <- (SE x). unfold priv_entries, mem_es. rewrite F4, F5. tauto. }
        destruct (Same t' ltac:(congruence) ltac:(congruence) TI' SE') as [G1 G2].
        apply (world_same (tw_with_tr w (Some t'))); try assumption; reflexivity.
  Qed.

  Lemma db_with_levels_same st : db_with_levels st (bs_levels st) = st.
  Proof. destruct st; reflexivity. Qed.

  Lemma discard_facts w t fresh : tw_tr w = Some t -> tt_closed t = false ->
    let w' := w_discard rp false w fresh in
    tw_tr w' = None /\ tw_db w' = tw_db w /\ tw_seq w' = (if tt_cfailed t then tt_seq t else tw_seq w).
  Proof.
    intros Et Hc. unfold w_discard. rewrite Et, Hc. destruct (tt_cfailed t).
    - set (w1 := tw_with_seq w (tt_seq t)). destruct (tw_mfail w1).
      + destruct (session_commit rp w1 SR.sr_empty None (bs_levels (tw_db w1)) fresh) as [[[w2 r2] b2]|] eqn:Es.
        * destruct (session_commit_facts _ _ _ _ _ _ _ _ Es) as (E1 & E2 & E3 & E4).
          destruct b2; cbn [tw_with_tr tw_with_gone tw_tr tw_db tw_seq].
          -- rewrite (E3 eq_refl), db_with_levels_same, E1. auto.
          -- rewrite (E4 eq_refl), E1. auto.
        * cbn [tw_with_tr tw_tr tw_db tw_seq]. auto.
      + cbn [tw_with_tr tw_with_gone tw_tr tw_db tw_seq]. auto.
    - cbn [tw_with_tr tw_with_gone tw_tr tw_db tw_seq]. auto.
  Qed.

  Lemma step_discard w s fresh : wrel w s -> winv w -> step_ok w s (BDiscard fresh).
  Proof.
    intros R WI. unfold step_ok, abs_ops, bstep. cbn [fst].
    destruct (tw_tr w) as [t|] eqn:Et.
    2:{ unfold w_discard. rewrite Et. cbn [xrun fold_left]. split; assumption. }
    pose proof WI as [S Ht]. rewrite Et in Ht. destruct Ht as [Hc TI]. rewrite Hc.
    destruct (discard_facts w t fresh Et Hc) as (F1 & F2 & F3).
    destruct R as (Hs & Hst & Htr). rewrite Et in Htr.
    destruct s as [h tx]. cbn [ts_h ts_txn] in *. destruct tx as [a|]; [|contradiction].
    unfold wrel, winv, wrel_of, winv_of. rewrite F1, F2, F3.
    destruct (tt_cfailed t); cbn [xrun fold_left xstep tstep x_skip ts_h ts_txn h_seq h_store].
    - split; [split; [reflexivity|split; [exact Hst|exact I]]|]. split; [|exact I].
      destruct S as [W1 W2 W3 W4 W5 W6]. destruct TI as [_ _ _ _ (fs & Hb & Hfs & _) _ Hmax].
      constructor; try assumption. intros x Hx. specialize (W4 x Hx). lia.
    - split; [split; [exact Hs|split; [exact Hst|exact I]]|]. split; [exact S|exact I].
  Qed.

  Lemma step_env w s st' : wrel w s -> winv w -> bop_pre w (BEnv st') -> step_ok w s (BEnv st').
  Proof.
    intros (Hs & Hst & Htr) [S Ht] Hpre. unfold step_ok, abs_ops, bstep, w_env. cbn [fst xrun fold_left xstep bop_pre] in *.
    unfold wrel, winv, wrel_of, winv_of. cbn [tw_with_db tw_db tw_seq tw_tr].
    destruct s as [h tx]. cbn [ts_h ts_txn] in *.
    assert (E : tstep {| ts_h := h; ts_txn := tx |} (TOut (HReorg (all_entries (absS st')))) =
                {| ts_h := hstep h (HReorg (all_entries (absS st'))); ts_txn := tx |}) by (destruct tx; reflexivity).
    rewrite E. cbn [ts_h ts_txn hstep h_seq h_store]. split.
    - split; [exact Hs|]. split; [intros x; tauto|exact Htr].
    - split; [exact Hpre|exact Ht].
  Qed.

  (* C11_txn_bytes_refines: every step of the byte machine, whatever the environment contributes within its
     contract (heights, table files that hold the memdb's pairs or a failure, capacities, outcomes of the
     manifest attempts, background reorganisations), is matched by the history-level machine: the relation
     between the two states and the invariants of the byte world are kept *)
  Theorem bstep_refines w s o : wrel w s -> winv w -> bop_pre w o -> step_ok w s o.
  Proof.
    intros R WI Hpre. destruct o.
    - apply step_open; assumption.
    - apply step_put; assumption.
    - apply step_write; assumption.
    - apply (proj1 (step_iter w s R WI)).
    - apply (proj2 (step_iter w s R WI)).
    - apply step_commit; assumption.
    - apply step_discard; assumption.
    - apply step_env; assumption.
  Qed.

  (* ... hence for every operation sequence *)
  Fixpoint bops_pre (w : tworld) (ops : list bop) : Prop :=
    match ops with
    | [] => True
    | o :: rest => bop_pre w o /\ bops_pre (fst (BSTEP w o)) rest
    end.

  Fixpoint abs_run (w : tworld) (ops : list bop) : list xop :=
    match ops with
    | [] => []
    | o :: rest => ABS w o ++ abs_run (fst (BSTEP w o)) rest
    end.

  Theorem brun_refines : forall ops w s, wrel w s -> winv w -> bops_pre w ops ->
    wrel (brun_from c p mp rp false w ops) (xrun s (abs_run w ops)) /\ winv (brun_from c p mp rp false w ops).
  Proof.
    induction ops as [|o ops IH]; intros w s R WI Hpre; [split; assumption|].
    destruct Hpre as [Ho Hrest]. destruct (bstep_refines w s o R WI Ho) as [R' WI'].
    cbn [brun_from fold_left abs_run]. unfold xrun. rewrite fold_left_app. apply IH; assumption.
  Qed.

  Local Notation O_get := (o_get c p mp tp crc decompress fname ufc verify).
  Local Notation T_get := (t_get c p mp tp crc decompress fname ufc verify).

  (* what everyone else reads: computed from the DB's byte state alone *)
  Theorem outside_get_newest w k q : sinv w -> wf_bytes k -> q <= keyMaxSeq p ->
    O_get w k q = BRes (group_res p (newest c k q (all_entries (absS (tw_db w))) None)).
  Proof.
    intros S Wk Hq. unfold o_get.
    apply (get_correct_bytes c ok p pok seek_val mp mpok tp crc decompress fname ufc verify ri k q Wk Hq _ (si_wf _ _ S)).
  Qed.

  (* both kinds of read, computed on the bytes, are the reads of the related history-level state *)
  Theorem reads_refine w s k : wrel w s -> winv w -> wf_bytes k ->
    (forall q, q <= keyMaxSeq p -> bapi (O_get w k q) = Some (out_get c p s k q)) /\
    (tw_tr w <> None -> option_map bapi (T_get w k) = Some (Some (txn_get c p s k))).
  Proof.
    intros (Hs & Hst & Htr) WI Wk. pose proof WI as [S Ht]. split.
    - intros q Hq. rewrite (outside_get_newest w k q S Wk Hq). cbn [bapi]. f_equal. unfold out_get, store_get.
      change (api_of (group_res p ?z)) with (History.res p z). f_equal. symmetry.
      apply (newest_same_elems c ok).
      + intros a b Ha Hb. apply (si_uniq _ _ S); apply Hst; assumption.
      + exact Hst.
    - intros Hopen. destruct (tw_tr w) as [t|] eqn:Et; [|congruence]. destruct Ht as [Hc TI].
      destruct (ts_txn s) as [a|] eqn:Ea; [|contradiction]. destruct Htr as (wr & -> & [A1 A2]).
      rewrite (txn_get_newest w t k WI Et Wk). cbn [option_map bapi]. do 2 f_equal. unfold txn_get. rewrite Ea.
      change (api_of (group_res p ?z)) with (History.res p z). cbn [mk_txn t_seq t_writes]. rewrite <- A1. f_equal. symmetry.
      apply (newest_same_elems c ok).
      + intros x y Hx Hy. assert (U : uniq_in (all_entries (absS (tw_db w)) ++ stamp (tw_seq w) wr))
          by (apply uniq_in_app_stamp; [exact (si_uniq _ _ S)|exact (si_le _ _ S)]).
        apply U; rewrite in_app_iff; rewrite in_app_iff in Hx, Hy; [destruct Hx as [Hx|Hx]; [left; apply Hst; exact Hx|right; exact Hx]
                                                                    |destruct Hy as [Hy|Hy]; [left; apply Hst; exact Hy|right; exact Hy]].
      + intros x. rewrite !in_app_iff, (Hst x), (A2 x). tauto.
  Qed.

  (* C11_outside_unaffected_bytes: no operation of the open transaction touches what an outside read is computed
     from — the DB's memdbs, version and sequence number; a Commit touches them only when it succeeds, a Discard
     leaves the version alone *)
  Definition txn_local (o : bop) : bool :=
    match o with BOpen _ | BPut _ _ _ _ | BWrite _ _ | BIterOpen | BIterRelease => true | _ => false end.

  Theorem outside_unaffected w o : (txn_local o = true \/ (exists fo atts, o = BCommit fo atts /\ snd (BSTEP w o) <> TOk)) ->
    tw_db (fst (BSTEP w o)) = tw_db w /\ tw_seq (fst (BSTEP w o)) = tw_seq w /\
    forall k q, O_get (fst (BSTEP w o)) k q = O_get w k q.
  Proof.
    intros H.
    assert (G : tw_db (fst (BSTEP w o)) = tw_db w /\ tw_seq (fst (BSTEP w o)) = tw_seq w).
    { destruct H as [H|(fo & atts & -> & H)].
      - destruct o; try discriminate; unfold bstep, w_open, w_put, w_write, w_iter_open, w_iter_release, on_open.
        + destruct (tw_tr w); [auto|]. destruct (open_ready (tw_db w)); [|auto]. destruct (MemDB.mdb_new mp); auto.
        + destruct (tw_tr w) as [t|]; [|auto]. destruct (tt_closed t); [auto|]. destruct (T_put t kt key value o); auto.
        + destruct (Batch.batch_len b =? 0); [auto|]. destruct (tw_tr w) as [t|]; [|auto]. destruct (tt_closed t); [auto|].
          destruct (Batch.batch_records b); [destruct (T_puts t l os)|]; auto.
        + destruct (tw_tr w) as [t|]; [|auto]. destruct (tt_closed t); auto.
        + destruct (tw_tr w) as [t|]; auto.
      - unfold bstep, w_commit in *. destruct (tw_tr w) as [t0|]; [|auto]. destruct (tt_closed t0); [auto|].
        destruct (T_flush t0 fo) as [t r]. destruct r; try (cbn [fst]; auto).
        destruct (tt_tables t); [cbn [snd] in H; congruence|].
        destruct (commit_loop rp false 3 w _ atts) as [[[w' t'] b]|] eqn:El; [|auto].
        destruct (commit_loop_facts 3 _ _ _ _ _ _ El) as (F1 & _ & _ & _ & _ & _ & _ & F8).
        destruct b; [cbn [snd] in H; congruence|]. cbn [fst tw_with_tr tw_db tw_seq]. split; [apply F8; reflexivity|exact F1]. }
    destruct G as [G1 G2]. split; [exact G1|]. split; [exact G2|]. intros k q. unfold o_get. rewrite G1. reflexivity.
  Qed.

  (* ... and inside the commit window (the tables are in the version, db.seq is not yet set): a read at any sequence
     number up to db.seq, computed on the bytes of the NEW version, is the read before the commit *)
  Theorem commit_window_bytes w t k q : sinv w -> tinv (tw_seq w) t -> tt_tables t <> [] -> wf_bytes k -> q <= tw_seq w ->
    db_get_bytes c p mp tp crc decompress fname ufc verify (installed (tw_db w) (tt_tables t)) k q =
    db_get_bytes c p mp tp crc decompress fname ufc verify (tw_db w) k q.
  Proof.
    intros S TI Hne Wk Hq.
    set (w2 := tw_with_seq (tw_with_db w (installed (tw_db w) (tt_tables t))) (tt_seq t)).
    pose proof (installed_sinv w t w2 S TI Hne eq_refl eq_refl) as S2.
    pose proof (installed_entries w t S Hne) as IE.
    assert (Hqm : q <= keyMaxSeq p) by (pose proof (si_max _ _ S); lia).
    pose proof (get_correct_bytes c ok p pok seek_val mp mpok tp crc decompress fname ufc verify ri k q Wk Hqm _ (si_wf _ _ S2)) as E2.
    change (tw_db w2) with (installed (tw_db w) (tt_tables t)) in E2. rewrite E2.
    rewrite (get_correct_bytes c ok p pok seek_val mp mpok tp crc decompress fname ufc verify ri k q Wk Hqm _ (si_wf _ _ S)).
    do 2 f_equal.
    rewrite (newest_same_elems c ok k q _ (tab_entries (tt_tables t) ++ all_entries (absS (tw_db w)))).
    - apply (newest_skip_invisible c). intros x Hx.
      destruct TI as [_ _ _ _ (fs & Hb & Hfs & Hcut1 & _) _ _]. specialize (Hcut1 x Hx).
      unfold Lsm.vis. destruct (cmp c (e_uk x) k); try reflexivity. apply N.leb_gt. lia.
    - exact (si_uniq _ _ S2).
    - intros x. rewrite in_app_iff. apply IE.
  Qed.

  (* C11_failed_write_partial: a Transaction.Write that returns an error has applied exactly a proper PREFIX of the
     batch — the records before the one whose private flush failed.  The transaction stays open and consistent;
     the prefix is part of what it holds: its later reads see it (reads_refine / txn_get_overlay with the record list
     extended by that prefix) and a later successful Commit publishes it (bstep_refines: the commit step of the
     history machine writes ALL records the transaction holds). *)
  Theorem failed_write_partial w t wr b os recs : winv w -> tw_tr w = Some t -> applied_rel (tw_seq w) wr t ->
    Batch.batch_records b = Some recs -> Batch.batch_len b <> 0 -> puts_pre t recs os ->
    let '(w', r) := w_write c p mp rp w b os in
    exists t' post, recs = applied c p mp rp t recs os ++ post /\ tw_tr w' = Some t' /\
      tw_db w' = tw_db w /\ tw_seq w' = tw_seq w /\ tt_closed t' = false /\ tinv (tw_seq w) t' /\
      applied_rel (tw_seq w) (wr ++ applied c p mp rp t recs os) t' /\
      match r with
      | TOk => post = []
      | TErr e => e = ETable /\ post <> []
      | _ => False
      end.
  Proof.
    intros [S Ht] Et AR Eb Hl Hpre. rewrite Et in Ht. destruct Ht as [Hc TI].
    unfold w_write, on_open. apply N.eqb_neq in Hl. rewrite Hl, Et, Hc, Eb.
    destruct (T_puts t recs os) as [t' r] eqn:Ep.
    destruct (applied_prefix t recs os) as [post Epost].
    destruct (t_puts_ok (tw_seq w) recs wr t os t' r TI AR Hpre Ep) as (TI' & AR' & Ec' & _ & Hr).
    exists t', post. split; [exact Epost|]. split; [reflexivity|]. split; [reflexivity|]. split; [reflexivity|].
    split; [congruence|]. split; [exact TI'|]. split; [exact AR'|].
    destruct r as [|e| |]; try exact Hr.
    - rewrite Hr in Epost. rewrite <- (app_nil_r recs) in Epost at 1. apply app_inv_head in Epost. auto.
    - destruct Hr as [-> Hlen]. split; [reflexivity|]. intros ->. rewrite app_nil_r in Epost. rewrite <- Epost in Hlen. lia.
  Qed.

  Variable strict : bool.

  Local Notation CL := (child_lists c mp tp crc decompress fname ufc verify ri).
  Local Notation IWF := (iter_wf c p mp tp crc decompress fname ufc verify ri).
  Local Notation DBE := (db_entries c mp tp crc decompress fname ufc verify ri).

  Lemma dpok : DBIter.dbparams_ok p.
  Proof. unfold DBIter.dbparams_ok. pose proof (del_le_val p pok). auto. Qed.

  (* the pairs of the iterator's children are the entries of the transaction's L1 state *)
  Lemma txn_children_entries w t : sinv w ->
    map entry_of (concat (CL (Some (tt_mem t)) (tt_tables t) (tw_db w))) = all_entries (txn_state t (tw_db w)).
  Proof.
    intros S. unfold child_lists, all_entries, all_tables, txn_state, mem_es.
    cbn [st_mem st_frozen st_aux st_levels map app opt_list concat].
    rewrite !concat_app, !map_app, !opt_mem_entries, (si_mem _ _ S), (si_frozen _ _ S). cbn [mem_entries opt_list map concat app].
    rewrite table_lists_concat, <- table_entries_concat, concat_app. f_equal. f_equal.
    unfold abs_table. induction (tt_tables t) as [|f l IH]; [reflexivity|]. cbn [map concat t_entries]. rewrite map_app, IH. reflexivity.
  Qed.

  Lemma txn_iter_wf w t : sinv w -> tinv (tw_seq w) t -> bs_mem (tw_db w) <> None ->
    IWF (Some (tt_mem t)) (tt_tables t) (tw_db w).
  Proof.
    intros S TI Ho.
    apply (iter_wf_intro c ok p dpok mp tp crc decompress fname ufc verify ri _ _ _ (txn_state t (tw_db w)) (si_wf _ _ S) Ho).
    - intros d E. injection E as <-. exact (ti_mem _ _ TI).
    - exact (ti_tabs _ _ TI).
    - exact (txn_state_wf w t S TI).
    - exact (txn_children_entries w t S).
  Qed.

  Lemma txn_state_uniq_in w t : sinv w -> tinv (tw_seq w) t -> uniq_in (all_entries (txn_state t (tw_db w))).
  Proof.
    intros S TI. rewrite (txn_state_entries w t S). intros a b Ha Hb Eu Es.
    assert (Hp : forall x, In x (priv_entries t) -> tw_seq w < e_seq x).
    { destruct TI as [_ _ _ _ (fs & Hb' & Hfs & Hc1 & Hc2) _ _]. intros x Hx. unfold priv_entries in Hx.
      apply in_app_or in Hx as [Hx|Hx]; [specialize (Hc2 x Hx)|specialize (Hc1 x Hx)]; lia. }
    apply in_app_or in Ha. apply in_app_or in Hb. destruct Ha as [Ha|Ha], Hb as [Hb|Hb].
    - apply (ti_inj _ _ TI); assumption.
    - specialize (Hp a Ha). pose proof (si_le _ _ S b Hb). lia.
    - specialize (Hp b Hb). pose proof (si_le _ _ S a Ha). lia.
    - apply (si_uniq _ _ S); assumption.
  Qed.

  (* C11_txn_iter_bytes.  An iterator of the open transaction, computed on the bytes, walks — for every range and
     every call sequence — the reference cursor over the live pairs at tr.seq of everything the transaction
     consults, and those pairs are exactly the (key, value) Transaction.Get finds: the iterator and the point
     reads of the transaction agree (hence, with txn_get_overlay: the base at open overlaid with its writes). *)
  Theorem txn_iter_bytes w t slice fuel ms : winv w -> tw_tr w = Some t -> bs_mem (tw_db w) <> None ->
    range_wf slice -> Forall umove_wf ms ->
    (length (all_entries (txn_state t (tw_db w))) < fuel)%nat ->
    t_iter c p mp tp crc decompress fname ufc verify strict fuel w slice ms =
      Some (Some (run_cursor (cmp c) (range_view c slice
                    (DBIter.live_pairs c p (tt_seq t) (DBE (Some (tt_mem t)) (tt_tables t) (tw_db w)))) ms)) /\
    (forall u v, wf_bytes u ->
       (In (u, v) (DBIter.live_pairs c p (tt_seq t) (DBE (Some (tt_mem t)) (tt_tables t) (tw_db w))) <->
        T_get w u = Some (BRes (GFound v)))).
  Proof.
    intros WI Et Ho Hr Hms Hfuel. pose proof WI as [S Ht]. rewrite Et in Ht. destruct Ht as [Hc TI].
    pose proof (txn_iter_wf w t S TI Ho) as IW.
    pose proof (txn_state_wf w t S TI) as WS.
    pose proof (txn_children_entries w t S) as EC.
    split.
    - unfold t_iter. rewrite Et, Hc. f_equal.
      apply (db_iterator_bytes_gen c ok p dpok mp mpok tp crc decompress fname ufc verify ri strict _ _ _ _ slice fuel ms IW
               (ti_max _ _ TI) Hr Hms).
      rewrite <- (map_length entry_of), EC. exact Hfuel.
    - intros u v Wu.
      pose proof (all_pairs_keys c ok p dpok mp mpok tp crc decompress fname ufc verify ri strict _ _ _ IW) as Hk.
      pose proof (db_entries_lsm c ok p dpok mp mpok tp crc decompress fname ufc verify ri strict _ _ _ _ IW WS EC) as EE.
      rewrite EE.
      assert (Hkinds : Forall (fun e => e_kind e = keyTypeDel p \/ e_kind e = keyTypeVal p) (all_entries (txn_state t (tw_db w)))).
      { rewrite <- EC. apply Forall_forall. intros e He. apply in_map_iff in He as (x & <- & Hx).
        apply (all_pairs_in c mp tp crc decompress fname ufc verify ri) in Hx.
        unfold keys_okl in Hk. rewrite Forall_forall in Hk. specialize (Hk x Hx).
        destruct (key_okb_dec p _ Hk) as (kk & D & K). rewrite (entry_of_dec x kk D). exact K. }
      assert (Hun : uniq (all_entries (txn_state t (tw_db w)))).
      { apply nodup_keyseq_u; [exact (wf_state_ikeys_nodup c ok p pok _ WS)|apply txn_state_uniq_in; assumption]. }
      rewrite (view_agrees_with_get c ok p pok _ WS Hun Hkinds (tt_seq t) u v).
      rewrite (txn_get_newest w t u WI Et Wu).
      rewrite (get_correct c ok p pok _ u (tt_seq t) WS), (txn_state_entries w t S).
      split; [intros ->; reflexivity|intros E; injection E as E; exact E].
  Qed.
End Txn.
