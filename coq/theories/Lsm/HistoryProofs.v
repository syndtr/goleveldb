(* Lsm/HistoryProofs.v — any history of writes, snapshots and admissible reorganisations answers every
   protected read like the plain map.  history_correct needs nothing of the comparer; the map side (History.a_get/a_apply) is
   keyed by the comparer's equivalence — a Put of another spelling of a stored user key overwrites it, a Delete of any
   spelling removes it — and is proved for every comparer satisfying the PREORDER contract (Base/OrderPre.v). *)
From GL Require Import Base.OrderPre Lsm.LsmProofs Lsm.History.
From Coq Require Import Lia.

Section Proofs.
  Variable c : comparer.
  Hypothesis ok : comparer_ok c.
  Variable p : kparams.
  Hypothesis pok : kparams_ok p.

  Notation newest := (newest c).
  Notation vis := (vis c).
  Notation res := (History.res p).

  Lemma vis_seq_irrelevant k s1 s2 e : e_seq e <= s1 -> s1 <= s2 -> vis k s2 e = vis k s1 e.
  Proof.
    intros H1 H2. unfold Lsm.vis. destruct (cmp c (e_uk e) k); [|reflexivity|reflexivity].
    destruct (e_seq e <=? s2) eqn:A; destruct (e_seq e <=? s1) eqn:B; try reflexivity; lia.
  Qed.

  Lemma newest_seq_irrelevant k s1 s2 l acc : (forall x, In x l -> e_seq x <= s1) -> s1 <= s2 ->
    newest k s2 l acc = newest k s1 l acc.
  Proof.
    revert acc; induction l as [|e l IH]; intros acc H Hs; cbn [Lsm.newest]; [reflexivity|].
    rewrite (vis_seq_irrelevant k s1 s2 e) by (try apply H; try left; auto).
    apply IH; [|exact Hs]. intros x Hx. apply H. right; exact Hx.
  Qed.

  Lemma newest_acc_none k s l a :
    (forall x, In x l -> vis k s x = true -> e_seq a < e_seq x) ->
    (exists x, In x l /\ vis k s x = true) ->
    newest k s l (Some a) = newest k s l None.
  Proof.
    induction l as [|e l IH]; intros H [x [Hx Vx]]; [destruct Hx|]. cbn [Lsm.newest].
    destruct (vis k s e) eqn:V.
    - cbn [newer]. pose proof (H e (or_introl eq_refl) V) as Ha.
      replace (e_seq a <? e_seq e) with true by (symmetry; apply N.ltb_lt; exact Ha). reflexivity.
    - apply IH.
      + intros y Hy. apply H. right; exact Hy.
      + destruct Hx as [<-|Hx]; [congruence|]. exists x. split; assumption.
  Qed.

  (* with an accumulator older than every visible element, and at least one visible element, the
     accumulator does not matter *)
  Lemma newest_acc_irrelevant k s l a b :
    (forall x, In x l -> vis k s x = true -> e_seq a < e_seq x /\ e_seq b < e_seq x) ->
    (exists x, In x l /\ vis k s x = true) ->
    newest k s l (Some a) = newest k s l (Some b).
  Proof.
    intros H E. rewrite !newest_acc_none by (try exact E; intros x Hx V; apply (H x Hx V)). reflexivity.
  Qed.

  Lemma vis_dec_list k s l : (exists x, In x l /\ vis k s x = true) \/ (forall x, In x l -> vis k s x = false).
  Proof.
    induction l as [|e l [[x [Hx Vx]]|IH]].
    - right. intros x [].
    - left. exists x. split; [right|]; assumption.
    - destruct (vis k s e) eqn:V.
      + left. exists e. split; [left; reflexivity|exact V].
      + right. intros x [<-|Hx]; [exact V|apply IH; exact Hx].
  Qed.

  (* appending a batch of strictly newer entries: the answer comes from the batch if it has a visible
     entry of k, else from what was there *)
  Lemma newest_append_newer k s l1 l2 es :
    res (newest k s l1 None) = res (newest k s l2 None) ->
    (forall a x, (In a l1 \/ In a l2) -> In x es -> e_seq a < e_seq x) ->
    res (newest k s (l1 ++ es) None) = res (newest k s (l2 ++ es) None).
  Proof.
    intros Hr Hnew. rewrite !(newest_app c).
    destruct (vis_dec_list k s es) as [Hex|Hno].
    - assert (E : forall l, (forall a, In a l -> In a l1 \/ In a l2) ->
                  newest k s es (newest k s l None) = newest k s es None).
      { intros l Hl. destruct (newest k s l None) as [a|] eqn:A; [|reflexivity].
        apply (newest_in c) in A as [A|[Ha _]]; [discriminate|].
        apply newest_acc_none; [|exact Hex]. intros x Hx _. apply (Hnew a x); [apply Hl; exact Ha|exact Hx]. }
      rewrite (E l1) by (intros; left; assumption). rewrite (E l2) by (intros; right; assumption). reflexivity.
    - rewrite !(newest_none c k s es Hno). exact Hr.
  Qed.

  Record hinv (h : hstate) : Prop := {
    hi_store_le : forall x, In x (h_store h) -> e_seq x <= h_seq h;
    hi_hist_le : forall x, In x (h_hist h) -> e_seq x <= h_seq h;
    hi_prot_le : forall s, protected h s -> s <= h_seq h;
    hi_reads : forall k s, protected h s ->
      res (newest k s (h_store h) None) = res (newest k s (h_hist h) None)
  }.

  Lemma stamp_seq seq recs x : In x (stamp seq recs) -> seq < e_seq x /\ e_seq x <= seq + N.of_nat (length recs).
  Proof.
    revert seq; induction recs as [|[[kd k] v] recs IH]; intros seq; cbn [stamp length]; [intros []|].
    intros [<-|H]; cbn [e_seq]; [lia|]. apply IH in H. lia.
  Qed.

  Lemma hinv_init : hinv h_init.
  Proof.
    constructor; cbn.
    - intros x [].
    - intros x [].
    - intros s [->|[]]. cbn. lia.
    - reflexivity.
  Qed.

  Lemma remove_nth_in {A} i (l : list A) x : In x (remove_nth i l) -> In x l.
  Proof.
    revert i; induction l as [|y l IH]; intros [|i]; cbn; auto.
    intros [->|H]; [left; reflexivity|right; eapply IH; eauto].
  Qed.

  Lemma hinv_step h o : hinv h -> hop_ok c p h o -> hinv (hstep h o).
  Proof.
    intros [I1 I2 I3 I4] Hok. destruct o as [recs| |i|s']; cbn [hstep].
    - (* write *)
      constructor; cbn [h_seq h_store h_hist h_snaps].
      + intros x Hx. apply in_app_or in Hx as [Hx|Hx]; [specialize (I1 x Hx); lia|].
        apply stamp_seq in Hx. lia.
      + intros x Hx. apply in_app_or in Hx as [Hx|Hx]; [specialize (I2 x Hx); lia|].
        apply stamp_seq in Hx. lia.
      + intros s [->|Hs]; [cbn; lia|]. assert (s <= h_seq h) by (apply I3; right; exact Hs). lia.
      + intros k s Hp.
        assert (Hnew : forall a x, In a (h_store h) \/ In a (h_hist h) ->
                  In x (stamp (h_seq h) recs) -> e_seq a < e_seq x).
        { intros a x [Ha|Ha] Hx; apply stamp_seq in Hx; [specialize (I1 a Ha)|specialize (I2 a Ha)]; lia. }
        apply newest_append_newer; [|exact Hnew].
        destruct Hp as [Hs|Hs]; cbn [h_seq h_snaps] in Hs.
        * (* the new current sequence number: old entries are all <= the old one *)
          subst s.
          rewrite (newest_seq_irrelevant k (h_seq h) _ (h_store h) None I1) by lia.
          rewrite (newest_seq_irrelevant k (h_seq h) _ (h_hist h) None I2) by lia.
          apply I4. left; reflexivity.
        * apply I4. right; exact Hs.
    - (* snapshot *)
      constructor; cbn [h_seq h_store h_hist h_snaps]; auto.
      + intros s [->|Hs]; [cbn; lia|]. apply in_app_or in Hs as [Hs|[<-|[]]]; [apply I3; right; exact Hs|lia].
      + intros k s [Hs|Hs]; [apply I4; left; exact Hs|].
        apply in_app_or in Hs as [Hs|[<-|[]]]; apply I4; [right; exact Hs|left; reflexivity].
    - (* release *)
      constructor; cbn [h_seq h_store h_hist h_snaps]; auto.
      + intros s [->|Hs]; [cbn; lia|]. apply I3. right. eapply remove_nth_in; eauto.
      + intros k s [Hs|Hs]; apply I4; [left; exact Hs|right; eapply remove_nth_in; eauto].
    - (* reorganisation *)
      destruct Hok as [Hsub Hres].
      constructor; cbn [h_seq h_store h_hist h_snaps]; auto.
      intros k s Hp. rewrite (Hres k s Hp). apply I4. exact Hp.
  Qed.

  Lemma hinv_run_from h ops : hinv h -> hops_ok c p h ops -> hinv (fold_left (hstep) ops h).
  Proof.
    revert h; induction ops as [|o ops IH]; intros h Hi Hok; cbn [fold_left]; [exact Hi|].
    destruct Hok as [Ho Hrest]. apply IH; [apply hinv_step; assumption|exact Hrest].
  Qed.

  (* Every protected read of the stored collection equals the same read of the full history. *)
  Theorem history_correct ops : hops_ok c p h_init ops ->
    forall k s, protected (hrun ops) s -> store_get c p (hrun ops) k s = hist_get c p (hrun ops) k s.
  Proof.
    intros Hok k s Hp. unfold store_get, hist_get, hrun.
    apply (hi_reads _ (hinv_run_from h_init ops hinv_init Hok)). exact Hp.
  Qed.

  Lemma a_get_remove_same k m : a_get c k (a_remove c k m) = None.
  Proof.
    induction m as [|[k' v] m IH]; cbn [a_remove a_get]; [reflexivity|].
    destruct (cmp c k' k) eqn:E; [exact IH| |]; cbn [a_get]; rewrite E; exact IH.
  Qed.

  Definition rec_key (r : wrec) : bytes := snd (fst r).

  (* one more record on top of a history whose entries are all <= seq *)
  Lemma newest_snoc k seq l e : (forall x, In x l -> e_seq x <= seq) -> e_seq e = seq + 1 ->
    newest k (seq + 1) (l ++ [e]) None =
    match cmp c (e_uk e) k with Eq => Some e | _ => newest k seq l None end.
  Proof.
    intros Hl He. rewrite (newest_app c). cbn [Lsm.newest]. unfold Lsm.vis.
    rewrite (newest_seq_irrelevant k seq (seq + 1) l None Hl) by lia.
    destruct (cmp c (e_uk e) k); [|reflexivity|reflexivity].
    replace (e_seq e <=? seq + 1) with true by (symmetry; apply N.leb_le; lia).
    destruct (newest k seq l None) as [a|] eqn:A; [|reflexivity]. cbn [newer].
    apply (newest_in c) in A as [A|[Ha _]]; [discriminate|].
    specialize (Hl a Ha). replace (e_seq a <? e_seq e) with true by (symmetry; apply N.ltb_lt; lia). reflexivity.
  Qed.

  Definition hbound (h : hstate) : Prop := forall x, In x (h_hist h) -> e_seq x <= h_seq h.

  Lemma hbound_step h o : hbound h -> hbound (hstep h o).
  Proof.
    intros Hb. destruct o as [recs| |i|s']; cbn [hstep]; unfold hbound; cbn [h_seq h_hist]; auto.
    intros x Hx. apply in_app_or in Hx as [Hx|Hx]; [specialize (Hb x Hx); lia|apply stamp_seq in Hx; lia].
  Qed.

  Definition map_step (m : amap) (o : hop) : amap :=
    match o with HWrite recs => fold_left (a_apply c p) recs m | _ => m end.

  Lemma hist_prefix_step h o : exists es, h_hist (hstep h o) = h_hist h ++ es /\
    (forall x, In x es -> h_seq h < e_seq x) /\ h_seq h <= h_seq (hstep h o).
  Proof.
    destruct o as [recs| |i|s']; cbn [hstep h_hist h_seq].
    - exists (stamp (h_seq h) recs). split; [reflexivity|]. split; [|lia].
      intros x Hx. apply stamp_seq in Hx. lia.
    - exists []. rewrite app_nil_r. split; [reflexivity|]. split; [intros x []|lia].
    - exists []. rewrite app_nil_r. split; [reflexivity|]. split; [intros x []|lia].
    - exists []. rewrite app_nil_r. split; [reflexivity|]. split; [intros x []|lia].
  Qed.

  Lemma hist_prefix_run ops : forall h, exists es, h_hist (fold_left hstep ops h) = h_hist h ++ es /\
    (forall x, In x es -> h_seq h < e_seq x) /\ h_seq h <= h_seq (fold_left hstep ops h).
  Proof.
    induction ops as [|o ops IH]; intros h; cbn [fold_left].
    - exists []. rewrite app_nil_r. split; [reflexivity|]. split; [intros x []|lia].
    - destruct (hist_prefix_step h o) as [es1 [E1 [N1 L1]]].
      destruct (IH (hstep h o)) as [es2 [E2 [N2 L2]]].
      exists (es1 ++ es2). rewrite E2, E1, app_assoc. split; [reflexivity|]. split; [|lia].
      intros x Hx. apply in_app_or in Hx as [Hx|Hx]; [apply N1; exact Hx|specialize (N2 x Hx); lia].
  Qed.

  (* the later history does not change what is read at an older sequence number *)
  Lemma hist_get_stable ops h k s : s <= h_seq h ->
    hist_get c p (fold_left hstep ops h) k s = hist_get c p h k s.
  Proof.
    intros Hs. unfold hist_get. destruct (hist_prefix_run ops h) as [es [E [Nw _]]].
    rewrite E, (newest_app c). f_equal. apply (newest_none c). intros x Hx.
    specialize (Nw x Hx). unfold Lsm.vis. destruct (cmp c (e_uk x) k); [|reflexivity|reflexivity].
    apply N.leb_gt. lia.
  Qed.
End Proofs.

Section Pre.
  Variable c : comparer.
  Hypothesis ok : comparer_pre_ok c.
  Variable p : kparams.

  Notation newest := (newest c).
  Notation res := (History.res p).

  Lemma a_remove_compat k k' m : cmp c k k' = Eq -> a_remove c k m = a_remove c k' m.
  Proof.
    intros H. induction m as [|[k2 v] m IH]; cbn [a_remove]; [reflexivity|].
    rewrite (pcmp_eq_r c ok k k' k2 H), IH. reflexivity.
  Qed.

  Lemma a_get_compat k k' m : cmp c k k' = Eq -> a_get c k m = a_get c k' m.
  Proof.
    intros H. induction m as [|[k2 v] m IH]; cbn [a_get]; [reflexivity|].
    rewrite (pcmp_eq_r c ok k k' k2 H), IH. reflexivity.
  Qed.

  Lemma pa_get_remove_other k k' m : cmp c k' k <> Eq -> a_get c k (a_remove c k' m) = a_get c k m.
  Proof.
    intros Hne. induction m as [|[k2 v] m IH]; cbn [a_remove a_get]; [reflexivity|].
    destruct (cmp c k2 k') eqn:E.
    - rewrite (pcmp_eq_l c ok k2 k' k E).
      destruct (cmp c k' k) eqn:E2; [congruence|exact IH|exact IH].
    - cbn [a_get]. destruct (cmp c k2 k); [reflexivity|exact IH|exact IH].
    - cbn [a_get]. destruct (cmp c k2 k); [reflexivity|exact IH|exact IH].
  Qed.

  Lemma pa_get_apply k m r :
    a_get c k (a_apply c p m r) =
    match r with (kd, k', v) =>
      match cmp c k' k with
      | Eq => if kd =? keyTypeDel p then None else Some v
      | _ => a_get c k m
      end
    end.
  Proof.
    destruct r as [[kd k'] v]. unfold a_apply.
    destruct (cmp c k' k) eqn:E.
    - destruct (kd =? keyTypeDel p).
      + rewrite (a_remove_compat k' k m E). apply a_get_remove_same.
      + cbn [a_get]. rewrite E. reflexivity.
    - assert (cmp c k' k <> Eq) by congruence.
      destruct (kd =? keyTypeDel p); [apply pa_get_remove_other; assumption|].
      cbn [a_get]. rewrite E. apply pa_get_remove_other; assumption.
    - assert (cmp c k' k <> Eq) by congruence.
      destruct (kd =? keyTypeDel p); [apply pa_get_remove_other; assumption|].
      cbn [a_get]. rewrite E. apply pa_get_remove_other; assumption.
  Qed.

  Lemma phist_recs k : forall recs seq l m,
    (forall x, In x l -> e_seq x <= seq) ->
    res (newest k seq l None) = a_get c k m ->
    res (newest k (seq + N.of_nat (length recs)) (l ++ stamp seq recs) None) = a_get c k (fold_left (a_apply c p) recs m).
  Proof.
    induction recs as [|[[kd k'] v] recs IH]; intros seq l m Hl Hm.
    - cbn [length stamp fold_left]. rewrite app_nil_r. replace (seq + N.of_nat 0) with seq by lia. exact Hm.
    - cbn [length stamp fold_left].
      replace (seq + N.of_nat (S (length recs))) with ((seq + 1) + N.of_nat (length recs)) by lia.
      replace (l ++ {| e_uk := k'; e_seq := seq + 1; e_kind := kd; e_val := v |} :: stamp (seq + 1) recs)
        with ((l ++ [{| e_uk := k'; e_seq := seq + 1; e_kind := kd; e_val := v |}]) ++ stamp (seq + 1) recs)
        by (rewrite <- app_assoc; reflexivity).
      apply IH.
      + intros x Hx. apply in_app_or in Hx as [Hx|[<-|[]]]; [specialize (Hl x Hx); lia|cbn; lia].
      + rewrite (newest_snoc c k seq l {| e_uk := k'; e_seq := seq + 1; e_kind := kd; e_val := v |} Hl eq_refl). cbn [e_uk].
        rewrite (pa_get_apply k m (kd, k', v)).
        destruct (cmp c k' k); [|exact Hm|exact Hm].
        unfold History.res. cbn [group_res]. unfold res_of. cbn [e_kind e_val].
        destruct (kd =? keyTypeDel p); reflexivity.
  Qed.

  Lemma phist_is_map_from ops : forall h m, hbound h ->
    (forall k, res (newest k (h_seq h) (h_hist h) None) = a_get c k m) ->
    forall k, res (newest k (h_seq (fold_left hstep ops h)) (h_hist (fold_left hstep ops h)) None) =
              a_get c k (fold_left (map_step c p) ops m).
  Proof.
    induction ops as [|o ops IH]; intros h m Hb Hm k; cbn [fold_left]; [apply Hm|].
    apply IH; [apply hbound_step; exact Hb|].
    intros k'. destruct o as [recs| |i|s']; cbn [hstep map_step h_seq h_hist]; try apply Hm.
    apply phist_recs; [exact Hb|apply Hm].
  Qed.

  (* Reading the full history at the current sequence number is reading the plain map driven by the same writes. *)
  Theorem hist_is_map_pre ops k :
    hist_get c p (hrun ops) k (h_seq (hrun ops)) = a_get c k (map_of c p ops).
  Proof.
    unfold hist_get, hrun, map_of. apply (phist_is_map_from ops h_init []).
    - intros x [].
    - intros k'. reflexivity.
  Qed.

  (* every Get at the current sequence number returns what the plain map returns, whatever writes, snapshots and
     admissible reorganisations happened *)
  Theorem current_reads_map ops k : hops_ok c p h_init ops ->
    store_get c p (hrun ops) k (h_seq (hrun ops)) = a_get c k (map_of c p ops).
  Proof.
    intros Hok. rewrite (history_correct c p ops Hok k _ (or_introl eq_refl)). apply hist_is_map_pre.
  Qed.

  (* a live snapshot keeps returning the contents of the instant it was taken *)
  Theorem snapshot_reads_map ops1 ops2 k : let h1 := hrun ops1 in let s := h_seq h1 in
    hops_ok c p h_init (ops1 ++ ops2) ->
    In s (h_snaps (hrun (ops1 ++ ops2))) ->
    store_get c p (hrun (ops1 ++ ops2)) k s = a_get c k (map_of c p ops1).
  Proof.
    intros h1 s Hok Hlive.
    rewrite (history_correct c p (ops1 ++ ops2) Hok k s (or_intror Hlive)).
    unfold hrun. rewrite fold_left_app. fold (hrun ops1). fold h1.
    rewrite (hist_get_stable c p ops2 h1 k s) by (unfold s; lia).
    apply hist_is_map_pre.
  Qed.
End Pre.

Section Injective.
  Variable c : comparer.
  Hypothesis ok : comparer_ok c.
  Variable p : kparams.
  Hypothesis pok : kparams_ok p.

  Notation newest := (newest c).
  Notation res := (History.res p).

  Lemma hist_recs k : forall recs seq l m,
    (forall x, In x l -> e_seq x <= seq) ->
    res (newest k seq l None) = a_get c k m ->
    res (newest k (seq + N.of_nat (length recs)) (l ++ stamp seq recs) None) = a_get c k (fold_left (a_apply c p) recs m).
  Proof. apply (phist_recs c (comparer_ok_pre c ok)). Qed.

  (* C01 at the level of histories: every Get at the current sequence number returns what the plain map
     returns, whatever writes, snapshots and admissible reorganisations happened. *)
  Theorem get_is_map ops k : hops_ok c p h_init ops ->
    store_get c p (hrun ops) k (h_seq (hrun ops)) = a_get c k (map_of c p ops).
  Proof. apply (current_reads_map c (comparer_ok_pre c ok)). Qed.

  (* A snapshot keeps returning the contents of the instant it was taken, however many writes, flushes,
     compactions, other snapshots and releases follow, as long as it is itself still live. *)
  Theorem snapshot_stable ops1 ops2 k : let h1 := hrun ops1 in let s := h_seq h1 in
    hops_ok c p h_init (ops1 ++ ops2) ->
    In s (h_snaps (hrun (ops1 ++ ops2))) ->
    store_get c p (hrun (ops1 ++ ops2)) k s = a_get c k (map_of c p ops1).
  Proof. apply (snapshot_reads_map c (comparer_ok_pre c ok)). Qed.
End Injective.
