(* Lsm/IterPathLevel.v — one sorted level under the DB iterator: the indexed iterator over
   tFiles.newIndexIterator (Lsm/IterPath.v: cut_files = tf[searchMax(Start):searchMin(Limit)] with the
   inverted-range clamp; aidx = basicArrayIterator over tFilesArrayIndexer, Search = searchMax, Get(i) hands
   the slice on only for the first and the last table of the cut) refines the cursor over the pairs of ALL
   tables of the level that lie inside the slice.
   Shape: (1) the array indexer refines the cursor over the index list [il_of] (index key = imax);
          (2) that list meets Iter/Indexed.v's index_ok;
          (3) the concatenation of the blocks of the cut = the slice of the concatenation of the level
              (tables before the cut are below Start, tables after it are at or above Limit, tables strictly
              inside the cut lie wholly inside the slice - the first/last slice rule);
          (4) C02's indexed_is_cursor. *)
From GL Require Import Base.Bytes Base.Order Base.OrderProofs Codec.IKey Codec.Block Codec.Table
  Lsm.Pick Lsm.PickBase Lsm.ReadPath Lsm.ReadPathKey Lsm.ReadPathProofs Lsm.IterPath Lsm.IterPathChild.
From GL Require Base.VarintProofs.
From GL Require Mem.ListLemmas.
From GL Require Base.Cursor Base.VarintProofs.
From GL Require Import Iter.Cursor Iter.CursorProofs Iter.CursorBridge Iter.Indexed Iter.IndexedProofs Iter.LiveProofs.
From Coq Require Import Lia Arith ZArith.

Lemma ss_nth {A} (R : A -> A -> Prop) (d : A) (l : list A) : StronglySorted R l ->
  forall i j, i < j -> j < length l -> R (nth i l d) (nth j l d).
Proof.
  induction l as [|x l IH]; intros Hs i j Hij Hj; [cbn in Hj; lia|].
  apply StronglySorted_inv in Hs as [Hs Hall]. destruct j as [|j]; [lia|]. cbn [length] in Hj.
  destruct i as [|i]; cbn [nth].
  - rewrite Forall_forall in Hall. apply Hall. apply nth_In. lia.
  - apply IH; [exact Hs|lia|lia].
Qed.

Lemma ss_app_inv {A} (R : A -> A -> Prop) (l1 l2 : list A) : StronglySorted R (l1 ++ l2) ->
  StronglySorted R l1 /\ StronglySorted R l2 /\ forall x y, In x l1 -> In y l2 -> R x y.
Proof.
  induction l1 as [|x l1 IH]; intros H; cbn [app] in H.
  - split; [constructor|]. split; [exact H|]. intros x y [].
  - apply StronglySorted_inv in H as [Hs Hall]. destruct (IH Hs) as (H1 & H2 & H3).
    split; [constructor; [exact H1|]|split; [exact H2|]].
    + rewrite Forall_forall in *. intros y Hy. apply Hall. apply in_or_app. left. exact Hy.
    + intros a b [<-|Ha] Hb; [|apply H3; assumption].
      rewrite Forall_forall in Hall. apply Hall. apply in_or_app. right. exact Hb.
Qed.

Lemma nth_error_map_seq {B} (g : nat -> B) n i : i < n -> nth_error (map g (seq 0 n)) i = Some (g i).
Proof.
  intros Hi. rewrite nth_error_map, (nth_error_nth' (seq 0 n) 0) by (rewrite seq_length; exact Hi).
  rewrite seq_nth by exact Hi. reflexivity.
Qed.

Lemma map_nth_seq {A B} (g : A -> B) (d : A) (l : list A) :
  map g l = map (fun i => g (nth i l d)) (seq 0 (length l)).
Proof.
  induction l as [|x l IH]; [reflexivity|]. cbn [length seq map nth]. f_equal.
  rewrite <- seq_shift, map_map. cbn [nth]. exact IH.
Qed.

Lemma filter_concat_map {A B} (g : B -> bool) (h : A -> list B) (l : list A) :
  filter g (concat (map h l)) = concat (map (fun a => filter g (h a)) l).
Proof.
  induction l as [|a l IH]; [reflexivity|]. cbn [map concat]. rewrite filter_app, IH. reflexivity.
Qed.

(* find_ge lands on the first index whose key is not below the probe *)
Lemma find_ge_first {K V} (f : K -> K -> comparison) (k : K) (d : K * V) : forall (l : list (K * V)) (j i0 : nat),
  (forall a, a < j -> f (fst (nth a l d)) k = Lt) ->
  (j < length l -> f (fst (nth j l d)) k <> Lt) -> j <= length l ->
  find_ge f k l i0 = if Nat.ltb j (length l) then At (i0 + j) else EOI.
Proof.
  induction l as [|x l IH]; intros j i0 H1 H2 H3.
  - cbn in H3. assert (j = 0) by lia. subst. reflexivity.
  - destruct j as [|j].
    + specialize (H2 ltac:(cbn; lia)). cbn [nth] in H2. cbn [find_ge length].
      replace (0 <? S (length l)) with true by (symmetry; apply Nat.ltb_lt; lia).
      rewrite Nat.add_0_r. destruct (f (fst x) k); congruence.
    + pose proof (H1 0 ltac:(lia)) as G. cbn [nth] in G. cbn [find_ge]. rewrite G. cbn [length].
      rewrite (IH j (S i0)).
      * change (S j <? S (length l)) with (j <? length l). destruct (j <? length l); [f_equal; lia|reflexivity].
      * intros a Ha. apply (H1 (S a)). lia.
      * intros Hj. apply H2. cbn [length]. lia.
      * cbn [length] in H3. lia.
Qed.

Section Level.
  Variable c : comparer.
  Hypothesis ok : comparer_ok c.
  Variable tp : tparams.
  Variable crc : bytes -> N.
  Variable decompress : bytes -> option bytes.
  Variable fname : option bytes.
  Variable ufc : bytes -> N -> bytes -> bool.
  Variable verify : bool.
  Variable strict : bool.
  Variable prs : tfile -> list (bytes * bytes).        (* the pairs of a table file (ReadPath.tf_pairs) *)

  Local Notation ic := (ibc c).
  Local Notation icok := (ibc_ok c ok).
  Local Notation fok := (cmp_ord_ok ic icok).
  Local Notation tnew := (tc_new c tp crc decompress fname ufc verify strict).

  (* what the level theorem needs of one table file *)
  Record file_ok (f : tfile) : Prop := {
    fo_pairs : exists kv r, prs f = kv :: r /\ tf_imin f = fst kv /\ tf_imax f = fst (last r kv);
    fo_sorted : sorted_kv (cmp ic) (prs f);
    fo_iter : forall sl, refines (cmp ic) (tc_step c) tc_obs (tnew f sl) (sl_pairs ic sl (prs f))
  }.

  (* every key of f is below every key of g *)
  Definition file_lt (f g : tfile) : Prop :=
    forall x y, In x (prs f) -> In y (prs g) -> cmp ic (fst x) (fst y) = Lt.

  Definition level_ok (ts : list tfile) : Prop := Forall file_ok ts /\ StronglySorted file_lt ts.

  Lemma imin_in f : file_ok f -> exists x, In x (prs f) /\ fst x = tf_imin f.
  Proof. intros [(kv & r & E & E1 & _) _ _]. exists kv. rewrite E. split; [left; reflexivity|auto]. Qed.

  Lemma imax_in f : file_ok f -> exists x, In x (prs f) /\ fst x = tf_imax f.
  Proof. intros [(kv & r & E & _ & E2) _ _]. exists (last r kv). rewrite E. split; [apply in_last|auto]. Qed.

  Lemma imin_le f x : file_ok f -> In x (prs f) -> cmp ic (tf_imin f) (fst x) <> Gt.
  Proof.
    intros [(kv & r & E & E1 & _) Hs _] Hx. rewrite E in Hx, Hs. rewrite E1.
    destruct Hx as [<-|Hx]; [rewrite (f_refl _ fok); discriminate|].
    apply StronglySorted_inv in Hs as [_ Hall]. rewrite Forall_forall in Hall. specialize (Hall x Hx).
    unfold kv_lt in Hall. rewrite Hall. discriminate.
  Qed.

  Lemma sorted_last_ge (l : list (bytes * bytes)) : sorted_kv (cmp ic) l -> forall kv x, In x (kv :: l) ->
    sorted_kv (cmp ic) (kv :: l) -> cmp ic (fst x) (fst (last l kv)) <> Gt.
  Proof.
    induction l as [|y l IH]; intros Hs kv x Hx Hsk.
    - destruct Hx as [<-|[]]. cbn [last]. rewrite (f_refl _ fok). discriminate.
    - apply StronglySorted_inv in Hsk as [Hs' Hall].
      rewrite (ListLemmas.last_cons_default l y kv).
      destruct Hx as [<-|Hx].
      + (* kv < y <= last *)
        assert (Hy : cmp ic (fst y) (fst (last l y)) <> Gt).
        { apply StronglySorted_inv in Hs as [Hs2 _]. apply (IH Hs2 y y (or_introl eq_refl) Hs'). }
        apply Forall_inv in Hall. unfold kv_lt in Hall.
        pose proof (f_lt_le_trans _ fok _ _ _ Hall Hy) as H. rewrite H. discriminate.
      + apply StronglySorted_inv in Hs as [Hs2 _]. apply (IH Hs2 y x Hx Hs').
  Qed.

  Lemma imax_ge f x : file_ok f -> In x (prs f) -> cmp ic (fst x) (tf_imax f) <> Gt.
  Proof.
    intros [(kv & r & E & _ & E2) Hs _] Hx. rewrite E in Hx, Hs. rewrite E2.
    pose proof Hs as Hs0. apply StronglySorted_inv in Hs as [Hs _].
    apply (sorted_last_ge r Hs kv x Hx Hs0).
  Qed.

  Lemma imax_lt f g : file_ok f -> file_ok g -> file_lt f g -> cmp ic (tf_imax f) (tf_imax g) = Lt.
  Proof.
    intros Hf Hg Hl. destruct (imax_in f Hf) as (x & Hx & <-). destruct (imax_in g Hg) as (y & Hy & <-).
    apply Hl; assumption.
  Qed.

  Lemma level_ok_app ts1 ts2 : level_ok (ts1 ++ ts2) -> level_ok ts1 /\ level_ok ts2.
  Proof.
    intros [Hf Hs]. apply Forall_app in Hf as [F1 F2]. apply ss_app_inv in Hs as (S1 & S2 & _).
    split; split; assumption.
  Qed.

  Lemma level_ok_nth ts i : level_ok ts -> i < length ts -> file_ok (nth i ts no_tfile).
  Proof. intros [Hf _] Hi. rewrite Forall_forall in Hf. apply Hf. apply nth_In. exact Hi. Qed.

  Lemma level_lt_nth ts i j : level_ok ts -> i < j -> j < length ts -> file_lt (nth i ts no_tfile) (nth j ts no_tfile).
  Proof. intros [_ Hs] Hij Hj. apply (ss_nth file_lt no_tfile ts Hs i j Hij Hj). Qed.

  (* sort.Search for the first file whose key (imax or imin) is not below k, the keys increasing along the level *)
  Lemma search_key_spec (key : tfile -> bytes) ts k :
    (forall a b, a < b -> b < length ts -> cmp ic (key (nth a ts no_tfile)) (key (nth b ts no_tfile)) = Lt) ->
    let n := sort_search (length ts) (fun i => match cmp ic (key (nth i ts no_tfile)) k with Lt => false | _ => true end) in
    n <= length ts /\
    (forall a, a < n -> cmp ic (key (nth a ts no_tfile)) k = Lt) /\
    (forall a, n <= a -> a < length ts -> cmp ic (key (nth a ts no_tfile)) k <> Lt).
  Proof.
    intros Hinc n.
    assert (Hm : monotone (fun i => match cmp ic (key (nth i ts no_tfile)) k with Lt => false | _ => true end) 0 (length ts)).
    { intros a b _ Hab Hb Ha. destruct (Nat.eq_dec a b) as [->|Hne]; [exact Ha|].
      pose proof (Hinc a b ltac:(lia) Hb) as Hlt.
      destruct (cmp ic (key (nth b ts no_tfile)) k) eqn:E; try reflexivity. exfalso.
      rewrite (cmp_trans ic icok _ _ _ Hlt E) in Ha. discriminate. }
    destruct (sort_search_spec _ _ Hm) as (K1 & K2 & K3). split; [exact K1|]. split.
    - intros a Ha. specialize (K2 a Ha). cbv beta in K2. destruct (cmp ic _ k); congruence.
    - intros a H1 H2. specialize (K3 a H1 H2). cbv beta in K3. destruct (cmp ic _ k); congruence.
  Qed.

  Lemma search_max_spec ts k : level_ok ts ->
    tf_search_max c ts k <= length ts /\
    (forall a, a < tf_search_max c ts k -> cmp ic (tf_imax (nth a ts no_tfile)) k = Lt) /\
    (forall a, tf_search_max c ts k <= a -> a < length ts -> cmp ic (tf_imax (nth a ts no_tfile)) k <> Lt).
  Proof.
    intros Hl. apply (search_key_spec tf_imax). intros a b Hab Hb.
    exact (imax_lt _ _ (level_ok_nth ts a Hl ltac:(lia)) (level_ok_nth ts b Hl Hb) (level_lt_nth ts a b Hl Hab Hb)).
  Qed.

  Lemma search_min_spec ts k : level_ok ts ->
    tf_search_min c ts k <= length ts /\
    (forall a, a < tf_search_min c ts k -> cmp ic (tf_imin (nth a ts no_tfile)) k = Lt) /\
    (forall a, tf_search_min c ts k <= a -> a < length ts -> cmp ic (tf_imin (nth a ts no_tfile)) k <> Lt).
  Proof.
    intros Hl. apply (search_key_spec tf_imin). intros a b Hab Hb.
    destruct (imin_in _ (level_ok_nth ts a Hl ltac:(lia))) as (x & Hx & <-).
    destruct (imin_in _ (level_ok_nth ts b Hl Hb)) as (y & Hy & <-).
    exact (level_lt_nth ts a b Hl Hab Hb x y Hx Hy).
  Qed.

  (* (1) the array indexer *)
  Definition il_entry (fs : list tfile) (sl : option krange) (i : nat) : bytes * (tfile * option krange) :=
    let f := nth i fs no_tfile in
    (tf_imax f, (f, if Nat.eqb i 0 || Nat.eqb i (length fs - 1) then sl else None)).
  Definition il_of (fs : list tfile) (sl : option krange) : list (bytes * (tfile * option krange)) :=
    map (il_entry fs sl) (seq 0 (length fs)).

  Lemma il_length fs sl : length (il_of fs sl) = length fs.
  Proof. unfold il_of. rewrite map_length, seq_length. reflexivity. Qed.

  Lemma il_nth fs sl i : i < length fs -> nth_error (il_of fs sl) i = Some (il_entry fs sl i).
  Proof. intros Hi. apply nth_error_map_seq. exact Hi. Qed.

  Lemma il_nth_d fs sl i d : i < length fs -> nth i (il_of fs sl) d = il_entry fs sl i.
  Proof. intros Hi. apply nth_error_nth. apply il_nth. exact Hi. Qed.

  Section Indexer.
    Variables (fs : list tfile) (sl : option krange).
    Hypothesis Hl : level_ok fs.
    Local Notation il := (il_of fs sl).
    Local Notation n := (length fs).

    Definition AR (a : aidx) (q : pos) : Prop :=
      ai_files a = fs /\ ai_slice a = sl /\
      (n = 0 \/
       (0 < n /\ match q with
                 | SOI => ai_pos a = (-1)%Z
                 | At i => i < n /\ ai_pos a = Z.of_nat i
                 | EOI => ai_pos a = Z.of_nat n
                 end)).

    Lemma AR_obs a q : AR a q -> ai_obs a = cobs il q.
    Proof.
      intros (Hf & Hs & H). unfold ai_obs, ai_valid, ai_len. rewrite Hf, Hs.
      destruct H as [H0|(Hn & H)].
      - rewrite H0. cbn [Z.of_nat].
        assert (E : ((0 <=? ai_pos a) && (ai_pos a <? 0))%Z = false).
        { destruct (0 <=? ai_pos a)%Z eqn:E1; destruct (ai_pos a <? 0)%Z eqn:E2; try reflexivity.
          apply Z.leb_le in E1. apply Z.ltb_lt in E2. lia. }
        rewrite E. destruct q; cbn [cobs]; try reflexivity. symmetry. apply nth_error_None. rewrite il_length. lia.
      - destruct q as [|i|]; cbn [cobs].
        + rewrite H. reflexivity.
        + destruct H as [Hi ->].
          replace (0 <=? Z.of_nat i)%Z with true by (symmetry; apply Z.leb_le; lia).
          replace (Z.of_nat i <? Z.of_nat n)%Z with true by (symmetry; apply Z.ltb_lt; lia).
          cbn [andb]. rewrite Nat2Z.id, (il_nth fs sl i Hi). reflexivity.
        + rewrite H. replace (Z.of_nat n <? Z.of_nat n)%Z with false by (symmetry; apply Z.ltb_irrefl).
          rewrite Bool.andb_false_r. reflexivity.
    Qed.

    Lemma seek_il k : find_ge (cmp ic) k il 0 =
      if Nat.ltb (tf_search_max c fs k) n then At (tf_search_max c fs k) else EOI.
    Proof.
      destruct (search_max_spec fs k Hl) as (K1 & K2 & K3).
      pose proof (find_ge_first (cmp ic) k (il_entry fs sl 0) il (tf_search_max c fs k) 0) as H.
      rewrite il_length in H. cbn [Nat.add] in H. apply H.
      - intros a Ha. rewrite il_nth_d by lia. cbn [il_entry fst]. apply K2. exact Ha.
      - intros Hj. rewrite il_nth_d by lia. cbn [il_entry fst]. apply K3; [lia|exact Hj].
      - exact K1.
    Qed.

    Lemma AR_step a q mv : AR a q -> AR (ai_step c a mv) (cstep (cmp ic) il q mv).
    Proof.
      intros (Hf & Hs & H). unfold AR.
      assert (Hfs : forall z, ai_files (ai_set a z) = fs /\ ai_slice (ai_set a z) = sl) by (intros z; split; assumption).
      assert (Hfiles : ai_files (ai_step c a mv) = fs /\ ai_slice (ai_step c a mv) = sl).
      { unfold ai_step. destruct mv; repeat match goal with |- context [if ?b then _ else _] => destruct b end; apply Hfs. }
      destruct Hfiles as [Hf' Hs']. split; [exact Hf'|]. split; [exact Hs'|].
      destruct H as [H0|(Hn & H)]; [left; exact H0|right]. split; [exact Hn|].
      assert (Elen : ai_len a = Z.of_nat n) by (unfold ai_len; rewrite Hf; reflexivity).
      assert (Enz : (ai_len a =? 0)%Z = false) by (apply Z.eqb_neq; lia).
      destruct mv as [| |k| |]; cbn [cstep]; unfold ai_step; rewrite ?Enz; cbn [ai_set ai_pos].
      - unfold cfirst. destruct il eqn:E; [exfalso; pose proof (il_length fs sl) as L; rewrite E in L; cbn in L; lia|].
        split; [lia|reflexivity].
      - unfold clast. rewrite il_length. destruct n as [|n'] eqn:En; [lia|]. split; [lia|]. rewrite Elen. lia.
      - rewrite Hf, seek_il. destruct (search_max_spec fs k Hl) as (K1 & _).
        destruct (Nat.ltb (tf_search_max c fs k) n) eqn:E.
        + apply Nat.ltb_lt in E. split; [exact E|reflexivity].
        + apply Nat.ltb_ge in E. f_equal. lia.
      - rewrite Elen. destruct q as [|i|].
        + rewrite H. replace (Z.of_nat n <=? -1 + 1)%Z with false by (symmetry; apply Z.leb_gt; lia).
          cbn [ai_set ai_pos]. unfold cfirst. destruct il eqn:E; [exfalso; pose proof (il_length fs sl) as L; rewrite E in L; cbn in L; lia|].
          split; [lia|reflexivity].
        + destruct H as [Hi ->]. rewrite il_length.
          destruct (Nat.ltb (S i) n) eqn:E.
          * apply Nat.ltb_lt in E. replace (Z.of_nat n <=? Z.of_nat i + 1)%Z with false by (symmetry; apply Z.leb_gt; lia).
            cbn [ai_set ai_pos]. split; [exact E|lia].
          * apply Nat.ltb_ge in E. replace (Z.of_nat n <=? Z.of_nat i + 1)%Z with true by (symmetry; apply Z.leb_le; lia).
            cbn [ai_set ai_pos]. reflexivity.
        + rewrite H. replace (Z.of_nat n <=? Z.of_nat n + 1)%Z with true by (symmetry; apply Z.leb_le; lia). reflexivity.
      - destruct q as [|i|].
        + rewrite H. cbn. reflexivity.
        + destruct H as [Hi ->]. destruct i as [|i].
          * cbn. reflexivity.
          * replace (Z.of_nat (S i) - 1 <? 0)%Z with false by (symmetry; apply Z.ltb_ge; lia).
            cbn [ai_set ai_pos]. split; [lia|lia].
        + rewrite H. unfold clast. rewrite il_length. destruct n as [|n'] eqn:En; [lia|].
          replace (Z.of_nat (S n') - 1 <? 0)%Z with false by (symmetry; apply Z.ltb_ge; lia).
          cbn [ai_set ai_pos]. split; [lia|lia].
    Qed.

    Lemma indexer_refines : refines (cmp ic) (ai_step c) ai_obs (mkAI fs sl (-1)%Z) il.
    Proof.
      apply (refines_by_sim (cmp ic) (ai_step c) ai_obs il AR AR_obs AR_step).
      split; [reflexivity|]. split; [reflexivity|]. destruct fs; [left; reflexivity|right]. split; [cbn; lia|reflexivity].
    Qed.

    (* (2) index_ok *)
    Definition dl (d : tfile * option krange) : list (bytes * bytes) := sl_pairs ic (snd d) (prs (fst d)).

    Lemma il_in e : In e il -> exists i, i < n /\ e = il_entry fs sl i.
    Proof.
      unfold il_of. intros H. apply in_map_iff in H as (i & <- & Hi). apply in_seq in Hi. exists i. split; [lia|reflexivity].
    Qed.

    Lemma il_sorted : sorted_kv (cmp ic) il.
    Proof.
      unfold il_of. assert (G : forall m s, s + m <= n -> sorted_kv (cmp ic) (map (il_entry fs sl) (seq s m))).
      { induction m as [|m IH]; intros s Hs; [constructor|]. cbn [seq map]. constructor; [apply IH; lia|].
        apply Forall_forall. intros e He. apply in_map_iff in He as (j & <- & Hj). apply in_seq in Hj.
        unfold kv_lt. cbn [il_entry fst].
        apply imax_lt; [apply level_ok_nth; [exact Hl|lia]|apply level_ok_nth; [exact Hl|lia]|apply level_lt_nth; [exact Hl|lia|lia]]. }
      apply G. lia.
    Qed.

    Lemma il_split_index A e B : il = A ++ e :: B ->
      e = il_entry fs sl (length A) /\ length A < n /\
      forall e', In e' B -> exists j, length A < j /\ j < n /\ e' = il_entry fs sl j.
    Proof.
      intros E. assert (Hlen : length A < n).
      { pose proof (il_length fs sl) as L. rewrite E, app_length in L. cbn [length] in L. lia. }
      assert (He : nth_error il (length A) = Some e) by (rewrite E; apply nth_error_middle).
      rewrite (il_nth fs sl _ Hlen) in He. injection He as He. split; [auto|]. split; [exact Hlen|].
      intros e' He'. destruct (In_nth_error _ _ He') as (j & Hj).
      assert (Hj' : nth_error il (length A + S j) = Some e').
      { rewrite E. rewrite nth_error_app2 by lia. replace (length A + S j - length A) with (S j) by lia. exact Hj. }
      assert (Hjn : length A + S j < n).
      { rewrite <- (il_length fs sl). apply nth_error_Some. rewrite Hj'. discriminate. }
      rewrite (il_nth fs sl _ Hjn) in Hj'. injection Hj' as Hj'. exists (length A + S j). split; [lia|]. split; [exact Hjn|auto].
    Qed.

    Lemma il_index_ok : index_ok (cmp ic) il dl.
    Proof.
      split; [exact il_sorted|]. split; [|split].
      - intros e He. apply il_in in He as (i & Hi & ->). unfold dl. cbn [il_entry snd fst].
        apply (sl_pairs_sorted ic). apply (fo_sorted _ (level_ok_nth fs i Hl Hi)).
      - intros e x He Hx. apply il_in in He as (i & Hi & ->). unfold dl in Hx. cbn [il_entry snd fst] in *.
        apply sl_pairs_incl in Hx. apply (imax_ge _ x (level_ok_nth fs i Hl Hi) Hx).
      - intros A e B x E e' He' Hx. destruct (il_split_index A e B E) as (-> & Hi & HB).
        destruct (HB e' He') as (j & Hij & Hj & ->). unfold dl in Hx. cbn [il_entry snd fst] in *.
        apply sl_pairs_incl in Hx.
        destruct (imax_in _ (level_ok_nth fs (length A) Hl Hi)) as (y & Hy & <-).
        apply (level_lt_nth fs (length A) j Hl Hij Hj y x Hy Hx).
    Qed.

    Lemma il_mk_refines d : In d (map snd il) ->
      refines (cmp ic) (tc_step c) tc_obs (lv_mk c tp crc decompress fname ufc verify strict d) (dl d).
    Proof.
      intros H. apply in_map_iff in H as (e & <- & He). apply il_in in He as (i & Hi & ->).
      unfold lv_mk, dl. cbn [il_entry snd fst]. apply (fo_iter _ (level_ok_nth fs i Hl Hi)).
    Qed.
  End Indexer.

  (* (3) the cut *)
  Definition lv_pairs (ts : list tfile) : list (bytes * bytes) := concat (map prs ts).

  Definition below (a : option bytes) (f : tfile) : Prop :=
    match a with Some k => cmp ic (tf_imax f) k = Lt | None => False end.
  Definition above (b : option bytes) (f : tfile) : Prop :=
    match b with Some k => cmp ic (tf_imin f) k <> Lt | None => False end.

  Lemma restrict_below a b f : file_ok f -> below a f -> Base.Cursor.restrict ic a b (prs f) = [].
  Proof.
    intros Hf Hb. unfold Base.Cursor.restrict. apply ListLemmas.filter_none. intros x Hx.
    destruct a as [k|]; [|destruct Hb]. cbn [below] in Hb.
    unfold Base.Cursor.in_range. apply Bool.andb_false_iff. left. unfold Order.leb.
    (* x <= imax < k, so k > x *)
    pose proof (imax_ge f x Hf Hx) as H1. pose proof (f_le_lt_trans _ fok _ _ _ H1 Hb) as H2.
    apply (f_lt_gt _ fok) in H2. rewrite H2. reflexivity.
  Qed.

  Lemma restrict_above a b f : file_ok f -> above b f -> Base.Cursor.restrict ic a b (prs f) = [].
  Proof.
    intros Hf Hb. unfold Base.Cursor.restrict. apply ListLemmas.filter_none. intros x Hx.
    destruct b as [k|]; [|destruct Hb]. cbn [above] in Hb.
    unfold Base.Cursor.in_range. apply Bool.andb_false_iff. right. unfold Order.ltb.
    (* k <= imin <= x *)
    pose proof (imin_le f x Hf Hx) as H1.
    destruct (cmp ic (fst x) k) eqn:E; try reflexivity. exfalso.
    (* imin <= x < k *)
    pose proof (f_le_lt_trans _ fok _ _ _ H1 E) as H2. contradiction.
  Qed.

  Lemma restrict_files_nil a b fs : Forall file_ok fs -> (forall f, In f fs -> below a f \/ above b f) ->
    Base.Cursor.restrict ic a b (lv_pairs fs) = [].
  Proof.
    intros Hf H. unfold lv_pairs, Base.Cursor.restrict. rewrite filter_concat_map.
    induction fs as [|f fs IH]; [reflexivity|]. cbn [map concat].
    inversion Hf as [|? ? Hf1 Hf2]; subst.
    rewrite IH; [|exact Hf2|intros g Hg; apply H; right; exact Hg]. rewrite app_nil_r.
    destruct (H f (or_introl eq_refl)) as [Hb|Ha]; [apply (restrict_below a b f Hf1 Hb)|apply (restrict_above a b f Hf1 Ha)].
  Qed.

  (* the cut as a decomposition of the level *)
  Lemma cut_split ts a b : level_ok ts ->
    exists A B, ts = A ++ cut_files c ts (Some (a, b)) ++ B /\
      (forall f, In f A -> below a f) /\ (forall f, In f B -> above b f) /\
      (forall f r, cut_files c ts (Some (a, b)) = f :: r ->
         match a with Some k => cmp ic (tf_imax f) k <> Lt | None => True end) /\
      (forall f r, cut_files c ts (Some (a, b)) = r ++ [f] ->
         match b with Some k => cmp ic (tf_imin f) k = Lt | None => True end).
  Proof.
    intros Hl. cbn [cut_files].
    set (start := match a with Some k => tf_search_max c ts k | None => 0 end).
    set (limit0 := match b with Some k => tf_search_min c ts k | None => length ts end).
    set (limit := if Nat.ltb limit0 start then start else limit0).
    assert (Hstart : start <= length ts).
    { subst start. destruct a as [k|]; [apply (search_max_spec ts k Hl)|lia]. }
    assert (Hlimit0 : limit0 <= length ts).
    { subst limit0. destruct b as [k|]; [apply (search_min_spec ts k Hl)|lia]. }
    assert (Hsl : start <= limit /\ limit <= length ts /\ (start < limit -> limit = limit0)).
    { subst limit. destruct (Nat.ltb limit0 start) eqn:E; [apply Nat.ltb_lt in E|apply Nat.ltb_ge in E]; lia. }
    destruct Hsl as (H1 & H2 & H3).
    exists (firstn start ts), (skipn limit ts). split; [|split; [|split; [|split]]].
    - rewrite <- (firstn_skipn start ts) at 1. f_equal.
      rewrite <- (firstn_skipn (limit - start) (skipn start ts)) at 1. f_equal.
      rewrite VarintProofs.skipn_skipn'. f_equal. lia.
    - intros f Hf. apply (in_firstn_nth no_tfile) in Hf as (i & Hi & _ & <-).
      subst start. destruct a as [k|]; [|lia]. cbn [below]. apply (search_max_spec ts k Hl). exact Hi.
    - intros f Hf. apply (in_skipn_nth no_tfile) in Hf as (i & Hi & Hi2 & <-).
      destruct b as [k|]; cbn [above].
      + apply (search_min_spec ts k Hl); [|exact Hi2]. subst limit limit0.
        destruct (Nat.ltb (tf_search_min c ts k) start) eqn:E; [apply Nat.ltb_lt in E|]; lia.
      + subst limit limit0. destruct (Nat.ltb (length ts) start) eqn:E; [apply Nat.ltb_lt in E|]; lia.
    - intros f r E. destruct a as [k|]; [|exact Logic.I].
      assert (Hlt : start < limit).
      { destruct (Nat.eq_dec start limit) as [En|]; [|lia]. rewrite En, Nat.sub_diag in E. discriminate. }
      assert (Ef : f = nth start ts no_tfile).
      { rewrite <- (firstn_skipn start ts) at 1. rewrite app_nth2 by (rewrite firstn_length; lia).
        rewrite firstn_length, Nat.min_l by lia. rewrite Nat.sub_diag.
        destruct (skipn start ts) as [|g rest] eqn:Es; [rewrite firstn_nil in E; discriminate|].
        destruct (limit - start) as [|m] eqn:Em; [lia|]. cbn [firstn] in E. injection E as -> _. reflexivity. }
      rewrite Ef. apply (search_max_spec ts k Hl); [reflexivity|lia].
    - intros f r E. destruct b as [k|]; [|exact Logic.I].
      assert (Hlt : start < limit).
      { destruct (Nat.eq_dec start limit) as [En|]; [|lia]. rewrite En, Nat.sub_diag in E. cbn in E. destruct r; discriminate. }
      specialize (H3 Hlt).
      assert (Ef : f = nth (limit - 1) ts no_tfile).
      { assert (Hlen : length (firstn (limit - start) (skipn start ts)) = limit - start).
        { rewrite firstn_length, skipn_length. lia. }
        assert (Hr : length r = limit - start - 1) by (rewrite E, app_length in Hlen; cbn in Hlen; lia).
        assert (Hn : nth (limit - start - 1) (firstn (limit - start) (skipn start ts)) no_tfile = f).
        { rewrite E, app_nth2 by lia. rewrite Hr, Nat.sub_diag. reflexivity. }
        rewrite <- Hn.
        rewrite <- (firstn_skipn start ts) at 2. rewrite app_nth2 by (rewrite firstn_length; lia).
        rewrite firstn_length, Nat.min_l by lia.
        rewrite <- (firstn_skipn (limit - start) (skipn start ts)) at 2.
        rewrite app_nth1 by (rewrite Hlen; lia). f_equal. lia. }
      rewrite Ef. apply (search_min_spec ts k Hl). subst limit0. lia.
  Qed.

  (* strictly inside a cut: wholly inside the slice *)
  Lemma restrict_inside a b f0 f f1 : file_ok f0 -> file_ok f -> file_ok f1 -> file_lt f0 f -> file_lt f f1 ->
    match a with Some k => cmp ic (tf_imax f0) k <> Lt | None => True end ->
    match b with Some k => cmp ic (tf_imin f1) k = Lt | None => True end ->
    Base.Cursor.restrict ic a b (prs f) = prs f.
  Proof.
    intros H0 Hf H1 L0 L1 Ha Hb. unfold Base.Cursor.restrict. apply ListLemmas.filter_all. intros x Hx.
    unfold Base.Cursor.in_range. apply Bool.andb_true_iff. split.
    - destruct a as [k|]; [|reflexivity]. unfold Order.leb.
      destruct (imax_in f0 H0) as (y & Hy & Ey). pose proof (L0 y x Hy Hx) as Hlt. rewrite Ey in Hlt.
      (* k <= imax0 < x *)
      destruct (cmp ic k (fst x)) eqn:E; try reflexivity. exfalso.
      apply (f_gt_lt _ fok) in E. pose proof (cmp_trans ic icok _ _ _ Hlt E) as T.
      apply Ha. exact T.
    - destruct b as [k|]; [|reflexivity]. unfold Order.ltb.
      destruct (imin_in f1 H1) as (y & Hy & Ey). pose proof (L1 x y Hx Hy) as Hlt. rewrite Ey in Hlt.
      rewrite (cmp_trans ic icok _ _ _ Hlt Hb). reflexivity.
  Qed.

  Lemma concat_blocks_il fs sl : concat_blocks (il_of fs sl) dl =
    concat (map (fun i => sl_pairs ic (if Nat.eqb i 0 || Nat.eqb i (length fs - 1) then sl else None) (prs (nth i fs no_tfile)))
                (seq 0 (length fs))).
  Proof. unfold concat_blocks, il_of. rewrite map_map. reflexivity. Qed.

  Lemma lv_pairs_seq fs : lv_pairs fs = concat (map (fun i => prs (nth i fs no_tfile)) (seq 0 (length fs))).
  Proof.
    unfold lv_pairs. f_equal. apply (map_nth_seq prs no_tfile fs).
  Qed.

  Lemma cut_blocks fs a b : level_ok fs ->
    (forall f r, fs = f :: r -> match a with Some k => cmp ic (tf_imax f) k <> Lt | None => True end) ->
    (forall f r, fs = r ++ [f] -> match b with Some k => cmp ic (tf_imin f) k = Lt | None => True end) ->
    concat_blocks (il_of fs (Some (a, b))) dl = Base.Cursor.restrict ic a b (lv_pairs fs).
  Proof.
    intros Hl Hhd Hlast. rewrite concat_blocks_il, lv_pairs_seq.
    unfold Base.Cursor.restrict at 1. rewrite filter_concat_map. f_equal.
    apply map_ext_in. intros i Hi. apply in_seq in Hi.
    destruct (Nat.eqb i 0 || Nat.eqb i (length fs - 1)) eqn:E; [reflexivity|]. cbn [sl_pairs].
    apply Bool.orb_false_iff in E as [E0 E1]. apply Nat.eqb_neq in E0, E1.
    symmetry.
    assert (Hn : 2 <= length fs) by lia.
    apply (restrict_inside a b (nth 0 fs no_tfile) (nth i fs no_tfile) (nth (length fs - 1) fs no_tfile)).
    - apply level_ok_nth; [exact Hl|lia].
    - apply level_ok_nth; [exact Hl|lia].
    - apply level_ok_nth; [exact Hl|lia].
    - apply level_lt_nth; [exact Hl|lia|lia].
    - apply level_lt_nth; [exact Hl|lia|lia].
    - destruct fs as [|f r]; [cbn in Hn; lia|]. cbn [nth]. apply (Hhd f r eq_refl).
    - destruct (ListLemmas.list_snoc_cases fs) as [->|(r & f & E)]; [cbn in Hn; lia|].
      assert (Ef : nth (length fs - 1) fs no_tfile = f).
      { rewrite E, app_length. cbn [length]. rewrite app_nth2 by lia. replace (length r + 1 - 1 - length r) with 0 by lia. reflexivity. }
      rewrite Ef. apply (Hlast f r E).
  Qed.

  (* (4) the level as a child of the merged iterator *)
  Theorem level_refines ts sl fuel : level_ok ts -> length ts < fuel ->
    refines (cmp ic) (lv_step c tp crc decompress fname ufc verify strict fuel) (lv_obs) (x_init (new_index_iterator c ts sl)) (sl_pairs ic sl (lv_pairs ts)).
  Proof.
    intros Hl Hfuel. unfold new_index_iterator.
    assert (Hcut : level_ok (cut_files c ts sl) /\ length (cut_files c ts sl) <= length ts /\
                   concat_blocks (il_of (cut_files c ts sl) sl) dl = sl_pairs ic sl (lv_pairs ts)).
    { destruct sl as [[a b]|].
      - destruct (cut_split ts a b Hl) as (A & B & E & HA & HB & Hhd & Hlast).
        set (M := cut_files c ts (Some (a, b))) in *.
        assert (HlM : level_ok M).
        { rewrite E in Hl. apply level_ok_app in Hl as [_ Hl]. apply level_ok_app in Hl as [Hl _]. exact Hl. }
        split; [exact HlM|]. split.
        { pose proof (f_equal (@length _) E) as EL. rewrite !app_length in EL. change (length M <= length ts). lia. }
        cbn [sl_pairs]. change (concat_blocks (il_of M (Some (a, b))) dl = Base.Cursor.restrict ic a b (lv_pairs ts)).
        rewrite (cut_blocks M a b HlM Hhd Hlast).
        assert (Ep : lv_pairs ts = lv_pairs (A ++ M ++ B)) by (rewrite <- E; reflexivity).
        rewrite Ep. unfold lv_pairs. rewrite !map_app, !concat_app. unfold Base.Cursor.restrict. rewrite !filter_app.
        pose proof Hl as Hl0. rewrite E in Hl0. apply level_ok_app in Hl0 as [[HfA _] Hl0]. apply level_ok_app in Hl0 as [_ [HfB _]].
        pose proof (restrict_files_nil a b A HfA (fun f Hf => or_introl (HA f Hf))) as EA.
        pose proof (restrict_files_nil a b B HfB (fun f Hf => or_intror (HB f Hf))) as EB.
        unfold lv_pairs, Base.Cursor.restrict in EA, EB. rewrite EA, EB, app_nil_r. reflexivity.
      - cbn [cut_files sl_pairs]. split; [exact Hl|]. split; [lia|].
        rewrite concat_blocks_il, lv_pairs_seq. f_equal. apply map_ext. intros i.
        destruct (Nat.eqb i 0 || Nat.eqb i (length ts - 1)); reflexivity. }
    destruct Hcut as (HlM & Hlen & Ecat). rewrite <- Ecat.
    apply (indexed_is_cursor bytes bytes (tfile * option krange) aidx tchild (cmp ic)
             (ai_step c) ai_obs (lv_mk c tp crc decompress fname ufc verify strict) (tc_step c) tc_obs
             (il_of (cut_files c ts sl) sl) dl (mkAI (cut_files c ts sl) sl (-1)%Z) fuel fok).
    - apply il_index_ok. exact HlM.
    - apply indexer_refines. exact HlM.
    - apply il_mk_refines. exact HlM.
    - rewrite il_length. lia.
  Qed.

  Lemma lv_pairs_sorted ts : level_ok ts -> sorted_kv (cmp ic) (lv_pairs ts).
  Proof.
    intros [Hf Hs]. unfold lv_pairs. induction ts as [|f ts IH]; [constructor|]. cbn [map concat].
    inversion Hf as [|? ? Hf1 Hf2]; subst. apply StronglySorted_inv in Hs as [Hs Hall].
    apply (sorted_app (cmp ic)); [apply (fo_sorted f Hf1)|apply IH; assumption|].
    intros x y Hx Hy. apply in_concat in Hy as (l & Hl & Hy). apply in_map_iff in Hl as (g & <- & Hg).
    rewrite Forall_forall in Hall. apply (Hall g Hg x y Hx Hy).
  Qed.
End Level.
