(* Lsm/ReadPathKey.v — interface lemmas between the byte-level layers and the L1 model:
   the internal-key order on ENCODED keys is a lawful comparer (so that the table theory C13 and the memdb
   theory C14, which are stated for an arbitrary lawful comparer, apply to the DB's tables and buffers);
   decoding of stored pairs; "first pair >= probe" of the byte layers = find_ge of the L1 model. *)
From GL Require Import Base.BytesProofs Codec.BytesCmp Codec.BytesCmpProofs Codec.IKeyProofs Lsm.Lsm Lsm.LsmProofs
  Lsm.ReadPath.
From Coq Require Import Lia.
Open Scope N_scope.

Lemma wf_bytesb_ok b : wf_bytesb b = true <-> wf_bytes b.
Proof.
  unfold wf_bytesb, wf_bytes. rewrite forallb_forall, Forall_forall. unfold wf_byte.
  split; intros H x Hx; specialize (H x Hx); [apply N.ltb_lt in H|apply N.ltb_lt]; exact H.
Qed.

Lemma ik_dec_some b k : ik_dec b = Some k -> wf_bytes b /\ split_ikey b = Some k /\ encode_ikey k = b.
Proof.
  unfold ik_dec. destruct (wf_bytesb b) eqn:W; [|discriminate]. apply wf_bytesb_ok in W.
  intros H. split; [exact W|]. split; [exact H|]. apply encode_split; assumption.
Qed.

Lemma ik_dec_inj a b k : ik_dec a = Some k -> ik_dec b = Some k -> a = b.
Proof.
  intros H1 H2. apply ik_dec_some in H1 as (_ & _ & <-). apply ik_dec_some in H2 as (_ & _ & <-). reflexivity.
Qed.

Lemma ik_dec_encode k : wf_bytes (uk k) -> num k < 2 ^ 64 -> ik_dec (encode_ikey k) = Some k.
Proof.
  intros W H. unfold ik_dec.
  assert (W2 : wf_bytesb (encode_ikey k) = true).
  { apply wf_bytesb_ok. unfold encode_ikey, wf_bytes. apply Forall_app. split; [exact W|apply le_encode_wf]. }
  rewrite W2. apply split_encode. exact H.
Qed.

Lemma ik_dec_ukey b k : ik_dec b = Some k -> ukey_b b = Some (uk k).
Proof. intros H. apply ik_dec_some in H as (_ & S & _). unfold ukey_b. rewrite S. reflexivity. Qed.

Lemma ik_dec_num_bound b k : ik_dec b = Some k -> num k < 2 ^ 64.
Proof.
  intros H. apply ik_dec_some in H as (W & S & _). unfold split_ikey in S.
  destruct (Nat.ltb (length b) 8) eqn:L; [discriminate|]. apply PeanoNat.Nat.ltb_ge in L.
  injection S as <-. cbn [num].
  assert (W2 : wf_bytes (lastn 8 b)).
  { unfold wf_bytes, lastn in *. rewrite <- (firstn_skipn (length b - 8) b) in W. apply Forall_app in W. apply W. }
  pose proof (le_decode_bound _ W2) as B. rewrite (lastn_length 8 b L) in B. exact B.
Qed.

Lemma ik_dec_wf_uk b k : ik_dec b = Some k -> wf_bytes (uk k).
Proof.
  intros H. apply ik_dec_some in H as (W & _ & E). rewrite <- E in W. unfold encode_ikey, wf_bytes in W.
  apply Forall_app in W. apply W.
Qed.

Lemma ik_pack k seq kt : kt < 256 ->
  ik_seq {| uk := k; num := pack seq kt |} = seq /\ ik_kind {| uk := k; num := pack seq kt |} = kt.
Proof.
  intros H. unfold ik_seq, ik_kind, pack. cbn [num]. split.
  - rewrite N.div_add_l by lia. rewrite N.div_small by lia. lia.
  - rewrite N.add_comm, N.mod_add by lia. apply N.mod_small. lia.
Qed.

(* keys built from a sequence number and a kind: makeInternalKey accepts them, they fit the 8-byte trailer and decode *)
Section Pack.
  Variable p : kparams.
  Hypothesis pok : kparams_ok p.

  Lemma make_ikey_ok k seq kt : seq <= keyMaxSeq p -> kt <= keyTypeVal p ->
    make_ikey p k seq kt = MkOk {| uk := k; num := pack seq kt |}.
  Proof.
    intros Hs Hk. unfold make_ikey. rewrite (proj2 (N.ltb_ge _ _) Hs), (proj2 (N.ltb_ge _ _) Hk). reflexivity.
  Qed.

  Lemma make_ikey_probe k s : s <= keyMaxSeq p -> keyTypeSeek p <= keyTypeVal p ->
    make_ikey p k s (keyTypeSeek p) = MkOk (probe p k s).
  Proof. exact (make_ikey_ok k s (keyTypeSeek p)). Qed.

  Lemma pack_bound seq kt : seq <= keyMaxSeq p -> kt < 256 -> pack seq kt < 2 ^ 64.
  Proof.
    intros Hs Hk. destruct pok as (_ & _ & _ & _ & Hmax & _). rewrite Hmax in Hs.
    unfold pack. change (2 ^ 64) with (2 ^ 56 * 256). change (2 ^ 56) with 72057594037927936 in *. nia.
  Qed.

  Lemma pack_dec k seq kt : wf_bytes k -> seq <= keyMaxSeq p -> kt < 256 ->
    ik_dec (encode_ikey {| uk := k; num := pack seq kt |}) = Some {| uk := k; num := pack seq kt |}.
  Proof. intros W Hs Hk. apply ik_dec_encode; [exact W|]. apply pack_bound; assumption. Qed.

  Lemma probe_dec k s : wf_bytes k -> s <= keyMaxSeq p -> ik_dec (encode_ikey (probe p k s)) = Some (probe p k s).
  Proof. intros W Hs. apply pack_dec; [exact W|exact Hs|apply pok]. Qed.

  Lemma maxnum_bound : keyMaxNum p < 2 ^ 64.
  Proof.
    destruct pok as (_ & _ & _ & H256 & _ & Hnum). rewrite Hnum.
    apply (pack_bound (keyMaxSeq p) (keyTypeSeek p)); [apply N.le_refl|exact H256].
  Qed.
End Pack.

Section IbcOk.
  Variable c : comparer.
  Hypothesis ok : comparer_ok c.

  Lemma ibc_dec a b x y : ik_dec a = Some x -> ik_dec b = Some y -> cmp (ibc c) a b = icmp c x y.
  Proof. intros H1 H2. cbn [cmp ibc]. unfold ibc_cmp. rewrite H1, H2. reflexivity. Qed.

  Theorem ibc_ok : comparer_ok (ibc c).
  Proof.
    constructor; cbn [cmp sep succ ibc]; unfold ibc_cmp; try discriminate.
    - intros a b. destruct (ik_dec a) as [x|] eqn:A; destruct (ik_dec b) as [y|] eqn:B.
      + rewrite (icmp_eq c ok). split.
        * intros ->. eapply ik_dec_inj; eauto.
        * intros ->. congruence.
      + split; [discriminate|]. intros ->. congruence.
      + split; [discriminate|]. intros ->. congruence.
      + apply (cmp_eq bytewise bytewise_ok).
    - intros a b. destruct (ik_dec a) as [x|]; destruct (ik_dec b) as [y|]; try reflexivity.
      + apply (icmp_opp c ok).
      + apply (cmp_opp bytewise bytewise_ok).
    - intros a b d. destruct (ik_dec a) as [x|]; destruct (ik_dec b) as [y|]; destruct (ik_dec d) as [z|];
        try discriminate; try reflexivity.
      + apply (icmp_trans c ok).
      + apply (cmp_trans bytewise bytewise_ok).
  Qed.
End IbcOk.

Section Entries.
  Variable c : comparer.
  Hypothesis ok : comparer_ok c.
  Variable p : kparams.
  Hypothesis pok : kparams_ok p.

  Lemma entry_of_dec kv k : ik_dec (fst kv) = Some k ->
    entry_of kv = {| e_uk := uk k; e_seq := ik_seq k; e_kind := ik_kind k; e_val := snd kv |}.
  Proof. intros H. unfold entry_of. rewrite H. reflexivity. Qed.

  Lemma e_ikey_entry_of kv k : ik_dec (fst kv) = Some k -> e_ikey (entry_of kv) = k.
  Proof.
    intros H. rewrite (entry_of_dec kv k H). unfold e_ikey, pack, ik_seq, ik_kind. cbn [e_uk e_seq e_kind].
    destruct k as [u n]. cbn [uk num]. f_equal.
    pose proof (N.div_mod n 256 ltac:(discriminate)). lia.
  Qed.

  Definition keys_ok (kvs : list (bytes * bytes)) : Prop := Forall (fun kv => key_okb p (fst kv) = true) kvs.

  Lemma key_okb_dec b : key_okb p b = true ->
    exists k, ik_dec b = Some k /\ (ik_kind k = keyTypeDel p \/ ik_kind k = keyTypeVal p).
  Proof.
    unfold key_okb. destruct (ik_dec b) as [k|]; [|discriminate]. intros H. exists k. split; [reflexivity|].
    apply Bool.orb_true_iff in H as [H|H]; apply N.eqb_eq in H; auto.
  Qed.

  Lemma kind_le_val k : ik_kind k = keyTypeDel p \/ ik_kind k = keyTypeVal p -> keyTypeSeek p <= keyTypeVal p ->
    ik_kind k <= keyTypeVal p.
  Proof. destruct pok as (H1 & H2 & _). intros [->| ->] H; lia. Qed.

  Lemma parse_ok b k : ik_dec b = Some k -> ik_kind k <= keyTypeVal p ->
    parse_ikey p b = Some (uk k, ik_seq k, ik_kind k).
  Proof.
    intros H Hk. apply ik_dec_some in H as (_ & S & _). unfold parse_ikey. rewrite S.
    replace (keyTypeVal p <? ik_kind k) with false by (symmetry; apply N.ltb_ge; exact Hk). reflexivity.
  Qed.

  Lemma keys_ok_kinds kvs : keys_ok kvs -> kinds_ok p (map entry_of kvs).
  Proof.
    intros H. unfold kinds_ok. apply Forall_map. eapply Forall_impl; [|exact H]. cbn beta.
    intros kv Hk. apply key_okb_dec in Hk as (k & D & K). rewrite (entry_of_dec kv k D). cbn [e_kind].
    destruct pok as (H1 & H2 & _). destruct K as [-> | ->]; assumption.
  Qed.

  (* "first pair whose key is not below the probe" in the encoded order = find_ge of the L1 model on the
     decoded entries *)
  Definition not_below (key : bytes) (kv : bytes * bytes) : bool :=
    match cmp (ibc c) (fst kv) key with Lt => false | _ => true end.

  Lemma find_not_below key q kvs : keys_ok kvs -> ik_dec key = Some q ->
    option_map entry_of (find (not_below key) kvs) = find_ge c q (map entry_of kvs).
  Proof.
    intros Hk Hq. induction kvs as [|kv kvs IH]; [reflexivity|].
    inversion Hk as [|? ? Hkv Hk']; subst. cbn [find map find_ge].
    apply key_okb_dec in Hkv as (k & D & _).
    unfold not_below at 1. rewrite (ibc_dec c _ _ _ _ D Hq), (e_ikey_entry_of kv k D).
    destruct (icmp c k q); try reflexivity. apply IH. exact Hk'.
  Qed.

  (* strictly increasing encoded keys = strongly sorted entries *)
  Lemma sorted_from_ssorted k0 kv0 kvs : ik_dec (fst kv0) = Some k0 -> keys_ok kvs ->
    Cursor.sorted_from (ibc c) (fst kv0) kvs ->
    Forall (fun b => ecmp c (entry_of kv0) b = Lt) (map entry_of kvs) /\ ssorted c (map entry_of kvs).
  Proof.
    revert k0 kv0. induction kvs as [|[k1 v1] kvs IH]; intros k0 kv0 D0 Hk Hs; cbn [map ssorted]; [split; [constructor|exact I]|].
    inversion Hk as [|? ? Hkv Hk']; subst. cbn [fst] in Hkv.
    apply key_okb_dec in Hkv as (x1 & D1 & _). cbn [Cursor.sorted_from] in Hs. destruct Hs as [L Hs].
    destruct (IH x1 (k1, v1) D1 Hk' Hs) as [F1 S1].
    assert (E01 : ecmp c (entry_of kv0) (entry_of (k1, v1)) = Lt).
    { unfold ecmp. rewrite (e_ikey_entry_of kv0 k0 D0), (e_ikey_entry_of (k1, v1) x1 D1).
      rewrite <- (ibc_dec c (fst kv0) k1 k0 x1 D0 D1). exact L. }
    split; [|split; assumption].
    constructor; [exact E01|].
    eapply Forall_impl; [|exact F1]. cbn beta. intros b Hb. eapply (ecmp_lt_trans c ok); eauto.
  Qed.

  Lemma sorted_ssorted kvs : keys_ok kvs -> Cursor.sorted (ibc c) kvs -> ssorted c (map entry_of kvs).
  Proof.
    destruct kvs as [|[k0 v0] kvs]; [intros; exact I|]. intros Hk Hs.
    inversion Hk as [|? ? Hkv Hk']; subst. cbn [fst] in Hkv. apply key_okb_dec in Hkv as (x0 & D0 & _).
    cbn [map ssorted]. apply (sorted_from_ssorted x0 (k0, v0) kvs D0 Hk' Hs).
  Qed.
End Entries.
