(* Lsm/ReorgProofs.v — the reorganisations the DB performs are admissible (History.reorg_ok):
   - any rearrangement of the same entries (rotation, flush, trivial move);
   - a table compaction: inputs merged, drop rule applied (the user comparer deciding "same user key"), everything else
     untouched.
   Proved for every comparer satisfying the PREORDER contract (Base/OrderPre.v), with the uniqueness condition on the
   entries visible to one probe (LsmProofs.uniq_vis); the statements for byte-equal user keys follow. *)
From GL Require Import Base.OrderPre Codec.IKeyPreProofs Lsm.LsmProofs Lsm.LsmPreProofs Lsm.CompactProofs Lsm.History
  Lsm.HistoryProofs.
From Coq Require Import Lia.

Section Pre.
  Variable c : comparer.
  Hypothesis ok : comparer_pre_ok c.
  Variable p : kparams.
  Hypothesis pok : kparams_ok p.

  Notation newest := (newest c).
  Notation vis := (vis c).
  Notation res := (History.res p).
  Notation ssorted := (ssorted c).
  Notation kinds_ok := (kinds_ok p).

  Definition same_elems (l1 l2 : list entry) : Prop := forall x, In x l1 <-> In x l2.
  (* no two distinct stored entries share user key and sequence number *)
  Definition uniq_in (l : list entry) : Prop :=
    forall a b, In a l -> In b l -> e_uk a = e_uk b -> e_seq a = e_seq b -> a = b.

  Lemma newest_max_acc k s l acc m : newest k s l acc = Some m ->
    (forall x, In x l -> vis k s x = true -> e_seq x <= e_seq m) /\
    (forall a, acc = Some a -> e_seq a <= e_seq m).
  Proof.
    revert acc; induction l as [|e l IH]; intros acc H; cbn [Lsm.newest] in H.
    - subst acc. split; [intros x []|]. intros a Ha. injection Ha as ->. lia.
    - apply IH in H as [H1 H2]. split.
      + intros x [Hex|Hx] Vx; [subst x|apply H1; assumption].
        rewrite Vx in H2. destruct acc as [a|]; cbn [newer] in H2.
        * destruct (e_seq a <? e_seq e) eqn:L; [apply (H2 e eq_refl)|].
          specialize (H2 a eq_refl). apply N.ltb_ge in L. lia.
        * apply (H2 e eq_refl).
      + intros a ->. destruct (vis k s e); [|apply (H2 a eq_refl)].
        cbn [newer] in H2. destruct (e_seq a <? e_seq e) eqn:L; [|apply (H2 a eq_refl)].
        specialize (H2 e eq_refl). apply N.ltb_lt in L. lia.
  Qed.

  Lemma newest_acc_some k s l a : newest k s l (Some a) <> None.
  Proof.
    revert a; induction l as [|e l IH]; intros a; cbn [Lsm.newest]; [discriminate|].
    destruct (vis k s e); [|apply IH]. cbn [newer]. destruct (e_seq a <? e_seq e); apply IH.
  Qed.

  Lemma newest_none_all k s l : newest k s l None = None -> forall x, In x l -> vis k s x = false.
  Proof.
    induction l as [|e l IH]; cbn [Lsm.newest]; intros H x Hx; [destruct Hx|].
    destruct (vis k s e) eqn:V.
    - cbn [newer] in H. exfalso. eapply newest_acc_some; eauto.
    - destruct Hx as [<-|Hx]; [exact V|apply IH; assumption].
  Qed.

  Lemma newest_same_elems_vis k s l1 l2 : uniq_vis c k s l1 -> same_elems l1 l2 ->
    newest k s l1 None = newest k s l2 None.
  Proof.
    intros Hu Hse.
    destruct (newest k s l1 None) as [m1|] eqn:E1; destruct (newest k s l2 None) as [m2|] eqn:E2; try reflexivity.
    - pose proof (newest_max_acc k s l1 None m1 E1) as [M1 _].
      pose proof (newest_max_acc k s l2 None m2 E2) as [M2 _].
      apply (newest_in c) in E1 as [E1|[H1 V1]]; [discriminate|].
      apply (newest_in c) in E2 as [E2|[H2 V2]]; [discriminate|].
      f_equal. apply Hu; [exact H1|apply Hse; exact H2|exact V1|exact V2|].
      assert (e_seq m2 <= e_seq m1) by (apply M1; [apply Hse; exact H2|exact V2]).
      assert (e_seq m1 <= e_seq m2) by (apply M2; [apply Hse; exact H1|exact V1]). lia.
    - exfalso. apply (newest_in c) in E1 as [E1|[H1 V1]]; [discriminate|].
      pose proof (newest_none_all k s l2 E2 m1 (proj1 (Hse m1) H1)). congruence.
    - exfalso. apply (newest_in c) in E2 as [E2|[H2 V2]]; [discriminate|].
      pose proof (newest_none_all k s l1 E1 m2 (proj2 (Hse m2) H2)). congruence.
  Qed.

  (* Rotation, flush, trivial move: the stored entries are the same, only their place changes. *)
  Theorem rearrangement_ok_vis h s' : (forall k s, uniq_vis c k s (h_store h)) -> same_elems (h_store h) s' -> reorg_ok c p h s'.
  Proof.
    intros Hu Hse. split.
    - intros x Hx. apply Hse. exact Hx.
    - intros k s _. rewrite (newest_same_elems_vis k s (h_store h) s' (Hu k s) Hse). reflexivity.
  Qed.

  (* insertion sort yields the merged order *)
  Lemma ins_in e l x : In x (ins c e l) <-> x = e \/ In x l.
  Proof.
    induction l as [|y l IH]; cbn [ins]; [cbn; intuition congruence|].
    destruct (ecmp c e y); cbn [In]; try rewrite IH; intuition congruence.
  Qed.

  Lemma isort_in l x : In x (isort c l) <-> In x l.
  Proof.
    induction l as [|e l IH]; cbn [isort fold_right]; [tauto|].
    fold (isort c l). rewrite ins_in, IH. cbn. intuition congruence.
  Qed.

  Lemma pecmp_opp a b : ecmp c b a = CompOpp (ecmp c a b).
  Proof. apply (picmp_opp c ok). Qed.

  Lemma pins_sorted e l : ssorted l -> (forall x, In x l -> ecmp c e x <> Eq) -> ssorted (ins c e l).
  Proof.
    induction l as [|y l IH]; intros Hs Hne; cbn [ins]; [split; [constructor|exact I]|].
    destruct Hs as [Hall Hs]. destruct (ecmp c e y) eqn:E.
    - exfalso. apply (Hne y); [left; reflexivity|exact E].
    - split; [|split; assumption]. constructor; [exact E|].
      rewrite Forall_forall in *. intros x Hx. eapply (picmp_trans c ok); [exact E|apply Hall; exact Hx].
    - split.
      + rewrite Forall_forall in *. intros x Hx. apply ins_in in Hx as [->|Hx]; [|apply Hall; exact Hx].
        rewrite pecmp_opp, E. reflexivity.
      + apply IH; [exact Hs|]. intros x Hx. apply Hne. right; exact Hx.
  Qed.

  Lemma pecmp_eq_ks a b : kinds_ok [a; b] -> ecmp c a b = Eq -> same_ks c a b.
  Proof.
    intros Hk H. apply (picmp_eq c) in H. unfold e_ikey in H. cbn [uk num] in H. destruct H as [Hu Hn].
    split; [exact Hu|]. unfold pack in Hn.
    inversion Hk as [|? ? Ha Hk']; subst. inversion Hk' as [|? ? Hb _]; subst.
    pose proof (seek_lt_256 p pok). lia.
  Qed.

  Lemma pisort_sorted l : kinds_ok l -> uniqE c l -> ssorted (isort c l).
  Proof.
    induction l as [|e l IH]; intros Hk Hnd; cbn [isort fold_right]; [exact I|]. fold (isort c l).
    cbn [uniqE] in Hnd. destruct Hnd as [Hn Hnd].
    apply pins_sorted; [apply IH; [eapply kinds_ok_tl; eauto|exact Hnd]|].
    intros x Hx E. apply (proj1 (isort_in l x)) in Hx. apply (Hn x Hx).
    apply pecmp_eq_ks; [|exact E].
    apply (kinds_pair p (e :: l)); [exact Hk|left; reflexivity|right; exact Hx].
  Qed.

  Lemma isort_kinds l : kinds_ok l -> kinds_ok (isort c l).
  Proof.
    unfold LsmProofs.kinds_ok. rewrite !Forall_forall. intros H x Hx. apply H. apply isort_in. exact Hx.
  Qed.

  Section Compaction.
    Variable minSeq : N.
    Variable base : bytes -> bool.
    Hypothesis minSeq_lt : minSeq < keyMaxSeq p.

    Variable I O : list entry.          (* entries of the input tables / everything else stored *)
    Hypothesis I_kinds : kinds_ok I.
    Hypothesis I_sorted : ssorted (isort c I).
    Hypothesis S_uniq : forall k s, uniq_vis c k s (I ++ O).
    (* every other stored entry of a user key (class) that occurs in the inputs is either newer than all input
       entries of that key (shallower level or buffer), or older — and then the key is not at base level *)
    Hypothesis others : forall o i, In o O -> In i I -> cmp c (e_uk o) (e_uk i) = Eq ->
      e_seq i < e_seq o \/ (e_seq o < e_seq i /\ base (e_uk i) = false).

    Let K := drop_run c p minSeq base None (isort c I).

    Lemma K_incl x : In x K -> In x I.
    Proof. intros H. apply (proj1 (isort_in I x)). eapply drop_incl; eauto. Qed.

    Theorem compaction_keeps_reads k s : minSeq <= s ->
      res (newest k s (K ++ O) None) = res (newest k s (I ++ O) None).
    Proof.
      intros Hms.
      assert (SE : same_elems (I ++ O) (isort c I ++ O)).
      { intros x. rewrite !in_app_iff, isort_in. tauto. }
      rewrite (newest_same_elems_vis k s (I ++ O) (isort c I ++ O) (S_uniq k s) SE).
      rewrite !(newest_app c).
      pose proof I_sorted as Hs.
      pose proof (isort_kinds I I_kinds) as Hk.
      rewrite (pnewest_sorted c ok p pok k s K None
                 (drop_kinds c p minSeq base None _ Hk) (drop_sorted c p minSeq base None _ Hs)).
      rewrite (pnewest_sorted c ok p pok k s (isort c I) None Hk Hs).
      assert (D := pdrop_fresh_strong c ok p pok minSeq base minSeq_lt k s Hms (isort c I) None Hs Hk).
      destruct D as [D|[e [F [Kd [Bk [Se D]]]]]]; [discriminate| |].
      - fold K in D. rewrite D. reflexivity.
      - fold K in D. rewrite D, F. cbn [newer].
        apply (first_vis_in c) in F as [He Ve]. apply (proj1 (isort_in I e)) in He.
        destruct (vis_dec_list c k s O) as [Hex|Hno].
        + f_equal. symmetry. apply (newest_acc_none c); [|exact Hex].
          intros x Hx Vx.
          destruct (others x e Hx He) as [H|[_ H]]; [eapply (same_class_of_vis c ok); eauto|exact H|].
          rewrite Bk in H. discriminate.
        + rewrite !(newest_none c k s O Hno). unfold History.res. cbn [group_res]. unfold res_of.
          rewrite Kd, N.eqb_refl. reflexivity.
    Qed.

    (* stated as History.reorg_ok for a store consisting of exactly the inputs and the others *)
    Theorem compaction_admissible h s' :
      same_elems (h_store h) (I ++ O) -> same_elems s' (K ++ O) ->
      (forall q, protected h q -> minSeq <= q) ->
      reorg_ok c p h s'.
    Proof.
      intros HS HS' Hprot. split.
      - intros x Hx. apply HS. apply HS' in Hx. apply in_app_or in Hx as [Hx|Hx]; apply in_or_app;
          [left; apply K_incl; exact Hx|right; exact Hx].
      - intros k s Hp.
        assert (US : uniq_vis c k s (h_store h)).
        { intros a b Ha Hb. apply S_uniq; apply HS; assumption. }
        assert (UK : uniq_vis c k s (K ++ O)).
        { intros a b Ha Hb. apply S_uniq.
          - apply in_app_or in Ha as [Ha|Ha]; apply in_or_app; [left; apply K_incl; exact Ha|right; exact Ha].
          - apply in_app_or in Hb as [Hb|Hb]; apply in_or_app; [left; apply K_incl; exact Hb|right; exact Hb]. }
        assert (SE' : same_elems (K ++ O) s') by (intros x; symmetry; apply HS').
        rewrite <- (newest_same_elems_vis k s (K ++ O) s' UK SE').
        rewrite (newest_same_elems_vis k s (h_store h) (I ++ O) US HS).
        apply compaction_keeps_reads. apply Hprot. exact Hp.
    Qed.
  End Compaction.
End Pre.

Section Proofs.
  Variable c : comparer.
  Hypothesis ok : comparer_ok c.
  Variable p : kparams.
  Hypothesis pok : kparams_ok p.

  Notation newest := (newest c).
  Notation res := (History.res p).
  Notation ssorted := (ssorted c).
  Notation kinds_ok := (kinds_ok p).

  Lemma uniq_in_vis k s l : uniq_in l -> uniq_vis c k s l.
  Proof.
    intros H a b Ha Hb Va Vb E. apply (vis_true c ok) in Va as [Ua _]. apply (vis_true c ok) in Vb as [Ub _].
    apply (H a b Ha Hb); congruence.
  Qed.

  Lemma newest_same_elems k s l1 l2 : uniq_in l1 -> same_elems l1 l2 ->
    newest k s l1 None = newest k s l2 None.
  Proof. intros Hu. apply newest_same_elems_vis. apply uniq_in_vis. exact Hu. Qed.

  Theorem rearrangement_ok h s' : uniq_in (h_store h) -> same_elems (h_store h) s' -> reorg_ok c p h s'.
  Proof. intros Hu. apply rearrangement_ok_vis. intros k s. apply uniq_in_vis. exact Hu. Qed.

  Lemma ins_sorted e l : ssorted l -> (forall x, In x l -> ecmp c e x <> Eq) -> ssorted (ins c e l).
  Proof. apply (pins_sorted c (comparer_ok_pre c ok)). Qed.

  Lemma ecmp_eq_keyseq a b : kinds_ok [a; b] -> ecmp c a b = Eq -> e_uk a = e_uk b /\ e_seq a = e_seq b.
  Proof.
    intros Hk H. destruct (pecmp_eq_ks c p pok a b Hk H) as [Hu Hs]. split; [apply (cmp_eq c ok); exact Hu|exact Hs].
  Qed.

  Lemma isort_sorted l : kinds_ok l -> NoDup (map keyseq l) -> ssorted (isort c l).
  Proof. intros Hk Hn. apply (pisort_sorted c (comparer_ok_pre c ok) p pok l Hk). apply (uniq_E c ok). exact Hn. Qed.

  Section Compaction.
    Variable minSeq : N.
    Variable base : bytes -> bool.
    Hypothesis minSeq_lt : minSeq < keyMaxSeq p.

    Variable I O : list entry.          (* entries of the input tables / everything else stored *)
    Hypothesis I_kinds : kinds_ok I.
    Hypothesis I_nodup : NoDup (map keyseq I).
    Hypothesis S_uniq : uniq_in (I ++ O).
    (* every other stored entry of a user key that occurs in the inputs is either newer than all input
       entries of that key (shallower level or buffer), or older — and then the key is not at base level *)
    Hypothesis others : forall o i, In o O -> In i I -> e_uk o = e_uk i ->
      e_seq i < e_seq o \/ (e_seq o < e_seq i /\ base (e_uk i) = false).

    Let K := drop_run c p minSeq base None (isort c I).

    Theorem compaction_preserves k s : minSeq <= s ->
      res (newest k s (K ++ O) None) = res (newest k s (I ++ O) None).
    Proof.
      apply (compaction_keeps_reads c (comparer_ok_pre c ok) p pok minSeq base minSeq_lt I O I_kinds
               (isort_sorted I I_kinds I_nodup) (fun k s => uniq_in_vis k s _ S_uniq)
               (fun o i Ho Hi E => others o i Ho Hi (proj1 (cmp_eq c ok _ _) E))).
    Qed.

    Theorem compaction_reorg_ok h s' :
      same_elems (h_store h) (I ++ O) -> same_elems s' (K ++ O) ->
      (forall q, protected h q -> minSeq <= q) ->
      reorg_ok c p h s'.
    Proof.
      apply (compaction_admissible c (comparer_ok_pre c ok) p pok minSeq base minSeq_lt I O I_kinds
               (isort_sorted I I_kinds I_nodup) (fun k s => uniq_in_vis k s _ S_uniq)
               (fun o i Ho Hi E => others o i Ho Hi (proj1 (cmp_eq c ok _ _) E))).
    Qed.
  End Compaction.
End Proofs.
