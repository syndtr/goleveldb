(* Lsm/RangeStep.v — one table compaction, as the termination arguments need it: installing the record of an admissible
   compaction (StepProofs) yields a well-formed version whose levels are known (source level = the survivors, next
   level = survivors with the outputs inserted, every other level untouched), and entry counts: the source level loses
   a >= 1 entries, the next level gains at most a.  Hence the weighted sum wsum (weight K - level) strictly decreases
   whenever the source level is below K. *)
From GL Require Import Lsm.LsmProofs Lsm.Pick Lsm.PickBase Lsm.ExpandProofs Lsm.WfLsm Lsm.FinishProofs
  Lsm.InsertProofs Lsm.StepProofs Lsm.ModelStep.
From GL Require Mem.ListLemmas.
From Coq Require Import Arith Lia Permutation.

Local Open Scope nat_scope.

Definition elen (ts : list table) : nat := length (LE ts).
Definition tl (v : list (list table)) (l : nat) : nat := elen (lv v l).

Lemma elen_cons t ts : elen (t :: ts) = length (t_entries t) + elen ts.
Proof. unfold elen, LE. cbn [map concat]. apply app_length. Qed.

Lemma elen_app a b : elen (a ++ b) = elen a + elen b.
Proof. unfold elen. rewrite LE_app. apply app_length. Qed.

Lemma elen_perm a b : Permutation a b -> elen a = elen b.
Proof.
  induction 1 as [|x l l' _ IH|x y l|l l' l'' _ IH1 _ IH2]; [reflexivity| | |congruence].
  - rewrite !elen_cons, IH. reflexivity.
  - rewrite !elen_cons. lia.
Qed.

Lemma elen_split (f : table -> bool) l : elen (filter f l) + elen (filter (fun t => negb (f t)) l) = elen l.
Proof.
  induction l as [|t l IH]; [reflexivity|]. cbn [filter]. destruct (f t); cbn [negb]; rewrite !elen_cons; lia.
Qed.

(* a duplicate-free sublist (as a set) selected by a boolean that decides membership *)
Lemma elen_selected (f : table -> bool) base sub :
  NoDup base -> NoDup sub -> incl sub base -> (forall t, In t base -> (f t = true <-> In t sub)) ->
  elen (filter f base) = elen sub.
Proof.
  intros Nb Ns I F. apply elen_perm. apply NoDup_Permutation; [apply NoDup_filter; exact Nb|exact Ns|].
  intros t. rewrite filter_In. split.
  - intros [H1 H2]. apply (F t H1). exact H2.
  - intros H. split; [apply I; exact H|apply (F t (I t H)); exact H].
Qed.

(* weighted sums over levels: wsum K f = sum over l < K of f l * (K - l) *)
Fixpoint wsum (K : nat) (f : nat -> nat) : nat :=
  match K with
  | O => 0
  | S k => f 0 * S k + wsum k (fun l => f (S l))
  end.
Fixpoint tsum (K : nat) (f : nat -> nat) : nat :=
  match K with
  | O => 0
  | S k => f 0 + tsum k (fun l => f (S l))
  end.

Lemma wsum_ext K : forall f g, (forall l, l < K -> f l = g l) -> wsum K f = wsum K g.
Proof.
  induction K as [|k IH]; intros f g H; [reflexivity|]. cbn [wsum]. rewrite (H 0) by lia.
  rewrite (IH (fun l => f (S l)) (fun l => g (S l))); [reflexivity|]. intros l Hl. apply H. lia.
Qed.

Lemma tsum_ext K : forall f g, (forall l, l < K -> f l = g l) -> tsum K f = tsum K g.
Proof.
  induction K as [|k IH]; intros f g H; [reflexivity|]. cbn [tsum]. rewrite (H 0) by lia.
  rewrite (IH (fun l => f (S l)) (fun l => g (S l))); [reflexivity|]. intros l Hl. apply H. lia.
Qed.

Lemma wsum_le_tsum K : forall f, wsum K f <= K * tsum K f.
Proof.
  induction K as [|k IH]; intros f; [reflexivity|]. cbn [wsum tsum]. specialize (IH (fun l => f (S l))). nia.
Qed.

Lemma tsum_member K : forall f l, l < K -> f l <= tsum K f.
Proof.
  induction K as [|k IH]; intros f l Hl; [lia|]. cbn [tsum]. destruct l as [|l]; [lia|].
  specialize (IH (fun l => f (S l)) l ltac:(lia)). cbn beta in IH. lia.
Qed.

(* level 0 may gain a entries, nothing else changes: the sum grows by at most a * K *)
Lemma wsum_bump0 K f g a : g 0 <= f 0 + a -> (forall l, 0 < l -> g l = f l) -> wsum K g <= wsum K f + a * K.
Proof.
  intros H0 H. destruct K as [|k]; [cbn; lia|]. cbn [wsum].
  rewrite (wsum_ext k (fun l => g (S l)) (fun l => f (S l))) by (intros l _; apply H; lia). nia.
Qed.

Lemma tsum_bump0 K f g a : g 0 <= f 0 + a -> (forall l, 0 < l -> g l = f l) -> tsum K g <= tsum K f + a.
Proof.
  intros H0 H. destruct K as [|k]; [cbn; lia|]. cbn [tsum].
  rewrite (tsum_ext k (fun l => g (S l)) (fun l => f (S l))) by (intros l _; apply H; lia). lia.
Qed.

(* the step: level L loses a, level L+1 gains at most a, the others keep their counts *)
Lemma wsum_step K : forall L f g a, L < K -> g L + a = f L -> g (S L) <= f (S L) + a ->
  (forall l, l <> L -> l <> S L -> g l = f l) -> wsum K g + a <= wsum K f.
Proof.
  induction K as [|k IH]; intros L f g a HL H1 H2 H3; [lia|]. cbn [wsum]. destruct L as [|L].
  - pose proof (wsum_bump0 k (fun l => f (S l)) (fun l => g (S l)) a H2) as B.
    specialize (B ltac:(intros l Hl; apply H3; lia)). cbn beta in H1. rewrite <- H1.
    set (x := wsum k (fun l => g (S l))) in *. set (y := wsum k (fun l => f (S l))) in *. nia.
  - rewrite (H3 0) by lia.
    specialize (IH L (fun l => f (S l)) (fun l => g (S l)) a ltac:(lia) H1 H2 ltac:(intros l Q1 Q2; apply H3; lia)).
    lia.
Qed.

Lemma tsum_step K : forall L f g a, g L + a = f L -> g (S L) <= f (S L) + a ->
  (forall l, l <> L -> l <> S L -> g l = f l) -> tsum K g <= tsum K f.
Proof.
  induction K as [|k IH]; intros L f g a H1 H2 H3; [cbn; lia|]. cbn [tsum]. destruct L as [|L].
  - pose proof (tsum_bump0 k (fun l => f (S l)) (fun l => g (S l)) a H2) as B.
    specialize (B ltac:(intros l Hl; apply H3; lia)). lia.
  - rewrite (H3 0) by lia.
    specialize (IH L (fun l => f (S l)) (fun l => g (S l)) a H1 H2 ltac:(intros l Q1 Q2; apply H3; lia)). lia.
Qed.

(* the first K levels hold at most all entries *)
Lemma tsum_tl_le K : forall v, tsum K (tl v) <= elen (concat v).
Proof.
  induction K as [|k IH]; intros v; [cbn; lia|]. cbn [tsum]. destruct v as [|x r].
  - unfold tl, lv. cbn [nth]. rewrite (tsum_ext k _ (fun _ => 0)); [|intros l _; destruct l; reflexivity].
    assert (E : forall j, tsum j (fun _ => 0) = 0) by (intros j; induction j as [|j IHj]; [reflexivity|cbn [tsum]; exact IHj]).
    rewrite E. cbn. lia.
  - cbn [concat]. rewrite elen_app. specialize (IH r).
    rewrite (tsum_ext k (fun l => tl (x :: r) (S l)) (tl r)) by (intros; reflexivity).
    unfold tl at 1. unfold lv. cbn [nth]. lia.
Qed.

(* the version after an admissible compaction *)
Section StepLevels.
  Variable c : comparer.
  Hypothesis ok : comparer_ok c.
  Variable p : kparams.

  Notation wf_lsm := (wf_lsm c p).
  Notation tbl_ok := (tbl_ok c p).

  Variable v : list (list table).
  Hypothesis W : wf_lsm v.
  Variable cm : compaction.
  Variable outs : list table.

  Let L := c_level cm.
  Let t0 := c_t0 cm.
  Let t1 := c_t1 cm.
  Let I := LE (t0 ++ t1).

  Hypothesis A0a : incl t0 (lv v L).
  Hypothesis A0b : incl t1 (lv v (S L)).
  Hypothesis A1 : forall s t x y, In s (lv v L) -> In t t0 -> In x (t_entries s) -> In y (t_entries t) ->
                  e_uk x = e_uk y -> In s t0 \/ (e_seq y < e_seq x)%N.
  Hypothesis A2 : forall s, In s (lv v (S L)) -> ~ In s t1 -> sep c s I.
  Hypothesis O1 : forall o, In o outs -> tbl_ok o.
  Hypothesis O2 : level_sorted c outs.
  Hypothesis O3 : forall o x, In o outs -> In x (t_entries o) -> In x I.
  Hypothesis O4 : uniq (LE outs).
  Hypothesis O5 : forall o o', In o outs -> In o' outs -> t_num o = t_num o' -> o = o'.
  Hypothesis O6 : forall o i s, In o outs -> In s (lv v i) -> t_num s = t_num o ->
                  (i = L /\ In s t0) \/ (i = S L /\ In s t1).
  Hypothesis N0 : NoDup t0.
  Hypothesis N1 : NoDup t1.
  Hypothesis T0ne : t0 <> [].

  (* what the step does to the entry counts and to the membership of the levels *)
  Definition step_effect (nv : list (list table)) : Prop :=
    exists a, 1 <= a /\ tl nv L + a = tl v L /\ tl nv (S L) <= tl v (S L) + a /\
      (forall l, l <> L -> l <> S L -> lv nv l = lv v l) /\
      (forall t, In t (lv nv L) -> In t (lv v L) /\ ~ In t t0) /\
      (forall t, In t (lv nv (S L)) -> (In t (lv v (S L)) /\ ~ In t t1) \/ In t outs) /\
      (forall t, In t (lv v (S L)) -> ~ In t t1 -> In t (lv nv (S L))) /\
      (forall t, In t outs -> In t (lv nv (S L))) /\
      (forall t, In t (lv v L) -> ~ In t t0 -> In t (lv nv L)).

  Theorem step_levels : exists nv, finish c true v (compaction_edit cm outs) = POk nv /\ wf_lsm nv /\ step_effect nv.
  Proof.
    destruct (level_dst c ok p v cm outs O1 O2) as [idx [Ed Hidx]].
    destruct (finish_levels c true v (compaction_edit cm outs) (new_level v cm outs idx)) as [nv [E H]].
    { intros l. unfold new_level. fold L. destruct (Nat.eqb l L) eqn:Q1.
      - apply Nat.eqb_eq in Q1. subst l. eapply level_src; eassumption.
      - destruct (Nat.eqb l (S L)) eqn:Q2.
        + apply Nat.eqb_eq in Q2. subst l. exact Ed.
        + apply Nat.eqb_neq in Q1, Q2. eapply level_other; eassumption. }
    exists nv. split; [exact E|]. split.
    { apply (new_wf c ok p v W cm outs A0a A0b A1 A2 O1 O2 O3 O4 O5 O6 idx Hidx nv H). }
    (* the two changed levels *)
    set (keep0 := fun t : table => negb (memN (t_num t) (nums_of t0))).
    set (D1 := dels_at (compaction_edit cm outs) (S L) (lv v (S L))).
    set (nt := filter (fun t => negb (memN (t_num t) D1) && negb (memN (t_num t) (nums_of outs))) (lv v (S L))).
    assert (EL : lv nv L = filter keep0 (lv v L)).
    { rewrite H. unfold new_level. fold L. rewrite Nat.eqb_refl. reflexivity. }
    assert (ES : lv nv (S L) = firstn idx nt ++ outs ++ skipn idx nt).
    { rewrite H. unfold new_level. fold L. replace (Nat.eqb (S L) L) with false by (symmetry; apply Nat.eqb_neq; lia).
      rewrite Nat.eqb_refl. reflexivity. }
    assert (Hnt : forall s, In s nt <-> In s (lv v (S L)) /\ ~ In s t1).
    { intros s. eapply nt_in; eassumption. }
    assert (F0 : forall t, In t (lv v L) -> (memN (t_num t) (nums_of t0) = true <-> In t t0)).
    { intros t Ht. eapply in_t0_iff; eassumption. }
    assert (F1 : forall t, In t (lv v (S L)) -> (memN (t_num t) (nums_of t1) = true <-> In t t1)).
    { intros t Ht. eapply in_t1_iff; eassumption. }
    exists (elen t0). split; [|split; [|split; [|split; [|split; [|split; [|split; [|split]]]]]]].
    - destruct t0 as [|t r] eqn:Et; [congruence|]. rewrite elen_cons.
      assert (Ht : tbl_ok t) by (apply (wl_tbl c p v W L t); apply A0a; left; reflexivity).
      destruct Ht as [_ Hne]. destruct (t_entries t); [congruence|cbn [length]; lia].
    - unfold tl. rewrite EL.
      assert (Sp : elen (filter (fun t => memN (t_num t) (nums_of t0)) (lv v L)) + elen (filter keep0 (lv v L)) = elen (lv v L))
        by (apply (elen_split (fun t => memN (t_num t) (nums_of t0)))).
      rewrite (elen_selected _ (lv v L) t0 (lv_nodup c p v W L) N0 A0a F0) in Sp. lia.
    - unfold tl. rewrite ES, !elen_app.
      assert (Ent : elen (firstn idx nt) + elen (skipn idx nt) = elen nt).
      { rewrite <- elen_app, firstn_skipn. reflexivity. }
      assert (Eq1 : elen nt + elen t1 = elen (lv v (S L))).
      { assert (Sp : elen (filter (fun t => memN (t_num t) (nums_of t1)) (lv v (S L))) +
                     elen (filter (fun t => negb (memN (t_num t) (nums_of t1))) (lv v (S L))) = elen (lv v (S L)))
          by (apply (elen_split (fun t => memN (t_num t) (nums_of t1)))).
        rewrite (elen_selected _ (lv v (S L)) t1 (lv_nodup c p v W (S L)) N1 A0b F1) in Sp.
        assert (En : nt = filter (fun t => negb (memN (t_num t) (nums_of t1))) (lv v (S L))).
        { unfold nt. apply filter_ext_in. intros t Ht.
          destruct (memN (t_num t) (nums_of t1)) eqn:M.
          - apply (F1 t Ht) in M. cbn [negb].
            destruct (negb (memN (t_num t) D1) && negb (memN (t_num t) (nums_of outs)))%bool eqn:Q; [|reflexivity].
            exfalso. assert (Hin : In t nt) by (unfold nt; apply filter_In; split; assumption).
            apply Hnt in Hin. apply (proj2 Hin). exact M.
          - cbn [negb]. assert (Hin : In t nt).
            { apply Hnt. split; [exact Ht|]. intros Q. apply (F1 t Ht) in Q. congruence. }
            unfold nt in Hin. apply filter_In in Hin. apply Hin. }
        rewrite <- En in Sp. lia. }
      assert (Eo : elen outs <= elen t0 + elen t1).
      { rewrite <- elen_app. unfold elen. fold I.
        rewrite <- (map_length keyseq (LE outs)), <- (map_length keyseq I).
        apply NoDup_incl_length; [exact O4|]. intros k Hk. apply in_map_iff in Hk as [x [<- Hx]].
        apply in_map. apply LE_in in Hx as [o' [Ho Hx]]. apply (O3 o' x Ho Hx). }
      lia.
    - intros l Q1 Q2. rewrite H. unfold new_level. fold L.
      replace (Nat.eqb l L) with false by (symmetry; apply Nat.eqb_neq; exact Q1).
      replace (Nat.eqb l (S L)) with false by (symmetry; apply Nat.eqb_neq; exact Q2). reflexivity.
    - intros t Ht. rewrite EL in Ht. apply filter_In in Ht as [H1 H2]. split; [exact H1|].
      intros Q. apply (F0 t H1) in Q. unfold keep0 in H2. rewrite Q in H2. discriminate.
    - intros t Ht. rewrite ES in Ht. apply in_app_or in Ht as [Ht|Ht]; [|apply in_app_or in Ht as [Ht|Ht]].
      + left. apply Hnt. apply (ListLemmas.in_firstn nt idx t Ht).
      + right. exact Ht.
      + left. apply Hnt. apply (skipn_incl idx nt t Ht).
    - intros t Ht Hn. rewrite ES. assert (Hin : In t nt) by (apply Hnt; split; assumption).
      rewrite <- (firstn_skipn idx nt) in Hin. apply in_app_or in Hin as [Q|Q].
      + apply in_or_app. left; exact Q.
      + apply in_or_app. right. apply in_or_app. right; exact Q.
    - intros t Ht. rewrite ES. apply in_or_app. right. apply in_or_app. left; exact Ht.
    - intros t Ht Hn. rewrite EL. apply filter_In. split; [exact Ht|]. unfold keep0.
      destruct (memN (t_num t) (nums_of t0)) eqn:M; [|reflexivity]. apply (F0 t Ht) in M. contradiction.
  Qed.
End StepLevels.

(* the same for the compaction the model picker builds *)
Section ModelLevels.
  Variable c : comparer.
  Hypothesis ok : comparer_ok c.
  Variable p : kparams.
  Hypothesis pok : kparams_ok p.
  Variable sz : table -> N.

  Notation wf_lsm := (wf_lsm c p).

  Variable v : list (list table).
  Hypothesis W : wf_lsm v.
  Variable lvl : nat.
  Variable limit : N.
  Variable seed : list table.
  Hypothesis seed_ne : seed <> [].
  Hypothesis seed_in : incl seed (lv v lvl).
  Hypothesis seed_nd : NoDup seed.
  Variable cm : compaction.
  Hypothesis Pk : pick_ok c v lvl seed cm.

  Lemma pk_lvl : c_level cm = lvl.
  Proof. apply (pk_level c v lvl seed cm Pk). Qed.

  (* the built tables: chunks of the kept merged entries under unused numbers *)
  Theorem model_build_levels minSeq deeper chunks nums :
    cuts_ok c chunks = true -> concat chunks = compact_entries c p minSeq deeper (c_t0 cm ++ c_t1 cm) ->
    length nums = length chunks -> NoDup nums -> (forall n i s, In n nums -> In s (lv v i) -> t_num s <> n) ->
    exists nv, finish c true v (compaction_edit cm (mk_outputs nums chunks)) = POk nv /\ wf_lsm nv /\
               step_effect v cm (mk_outputs nums chunks) nv.
  Proof.
    intros C1 C2 Hl F1 F2.
    destruct (outs_ok c ok p pok sz v W lvl seed cm Pk minSeq deeper chunks nums C1 C2 Hl F1)
      as [O1 [O2 [O3 [O4 [O5 On]]]]].
    apply (step_levels c ok p v W cm (mk_outputs nums chunks)); rewrite ?pk_lvl; try assumption.
    - apply (pk_t0 c v lvl seed cm Pk).
    - apply (pk_t1 c v lvl seed cm Pk).
    - intros s t x y H1 H2 H3 H4 H5. left. apply (pk_A1 c ok p sz v W lvl seed seed_in cm Pk s t x y); assumption.
    - apply (pk_A2 c ok p sz v W lvl seed cm Pk).
    - intros o i s Ho Hs E. exfalso. apply (F2 (t_num o) i s (On o Ho) Hs E).
    - apply (pk_nd0 c v lvl seed cm Pk).
    - apply (pk_nd1 c v lvl seed cm Pk).
    - apply (pk_t0_ne c v lvl seed seed_ne cm Pk).
  Qed.

  (* the trivial move *)
  Theorem model_move_levels t : c_t0 cm = [t] -> c_t1 cm = [] ->
    exists nv, finish c true v (move_edit cm) = POk nv /\ wf_lsm nv /\ step_effect v cm (c_t0 cm) nv.
  Proof.
    intros E0 E1. unfold move_edit.
    assert (Ht : In t (lv v lvl)) by (apply (pk_t0 c v lvl seed cm Pk); rewrite E0; left; reflexivity).
    apply (step_levels c ok p v W cm (c_t0 cm)); rewrite ?pk_lvl.
    - apply (pk_t0 c v lvl seed cm Pk).
    - apply (pk_t1 c v lvl seed cm Pk).
    - intros s u x y H1 H2 H3 H4 H5. left. apply (pk_A1 c ok p sz v W lvl seed seed_in cm Pk s u x y); assumption.
    - apply (pk_A2 c ok p sz v W lvl seed cm Pk).
    - intros o' Ho. apply (wl_tbl c p v W lvl o' (pk_t0 c v lvl seed cm Pk o' Ho)).
    - rewrite E0. split; [apply Forall_nil|exact Logic.I].
    - intros o' x Ho Hx. rewrite LE_app. apply in_or_app. left. apply LE_in. exists o'. split; assumption.
    - apply (uniq_sub (c_t0 cm) (lv v lvl) (pk_nd0 c v lvl seed cm Pk) (pk_t0 c v lvl seed cm Pk) (wl_uniq c p v W lvl)).
    - rewrite E0. intros o' o'' [<-|[]] [<-|[]] _. reflexivity.
    - intros o' i s Ho Hs E. left.
      destruct (wl_nums c p v W i lvl s o' Hs (pk_t0 c v lvl seed cm Pk o' Ho) E) as [-> ->].
      split; [reflexivity|exact Ho].
    - apply (pk_nd0 c v lvl seed cm Pk).
    - apply (pk_nd1 c v lvl seed cm Pk).
    - apply (pk_t0_ne c v lvl seed seed_ne cm Pk).
  Qed.
End ModelLevels.
