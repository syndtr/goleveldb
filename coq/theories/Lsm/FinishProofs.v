(* Lsm/FinishProofs.v — mechanics of versionStaging.finish (model Lsm/Pick.v): the new version level by level for the
   records of a table compaction / trivial move and of a flush. *)
From GL Require Import Lsm.Pick Lsm.WfLsm.
From Coq Require Import Arith Lia.

Local Open Scope nat_scope.

Lemma trim_nth x : forall i, nth i (trim x) [] = nth i x [].
Proof.
  induction x as [|l x IH]; intros i; [reflexivity|]. cbn [trim].
  destruct (trim x) as [|y r] eqn:E.
  - destruct l as [|t l'].
    + destruct i as [|i]; cbn [nth]; [reflexivity|]. rewrite <- IH. destruct i; reflexivity.
    + destruct i as [|i]; cbn [nth]; [reflexivity|]. rewrite <- IH. reflexivity.
  - destruct i as [|i]; cbn [nth]; [reflexivity|]. apply IH.
Qed.

Lemma trim_length x : length (trim x) <= length x.
Proof.
  induction x as [|l x IH]; [apply le_n|]. cbn [trim]. destruct (trim x), l; cbn [length] in *; lia.
Qed.

Lemma pres_all_length {A} (l : list (pres A)) : forall r, pres_all l = POk r -> length r = length l.
Proof.
  induction l as [|x l IH]; intros r H; cbn [pres_all] in H; [injection H as <-; reflexivity|].
  destruct x as [a| |]; try discriminate. cbn [pbind] in H.
  destruct (pres_all l) as [b| |]; try discriminate. injection H as <-. cbn [length]. rewrite (IH b eq_refl). reflexivity.
Qed.

Lemma pres_all_map {A B} (f : A -> pres B) (g : A -> B) l :
  (forall x, In x l -> f x = POk (g x)) -> pres_all (map f l) = POk (map g l).
Proof.
  induction l as [|x l IH]; intros H; [reflexivity|]. cbn [map pres_all].
  rewrite (H x (or_introl eq_refl)). cbn [pbind]. rewrite IH by (intros y Hy; apply H; right; exact Hy). reflexivity.
Qed.

Lemma nth_map_seq {B} (g : nat -> B) (d : B) n l : l < n -> nth l (map g (seq 0 n)) d = g l.
Proof.
  intros H. rewrite (nth_indep _ d (g 0)) by (rewrite map_length, seq_length; exact H).
  rewrite map_nth, seq_nth by exact H. reflexivity.
Qed.

Lemma fold_max_le (l : list nat) x : In x l -> x <= fold_right Nat.max 0 l.
Proof.
  induction l as [|y l IH]; intros H; [destruct H|]. cbn [fold_right]. destruct H as [->|H]; [lia|].
  specialize (IH H). lia.
Qed.

Section Finish.
  Variable c : comparer.

  Lemma adds_at_high ed l : edit_levels ed <= l -> adds_at ed l = [].
  Proof.
    intros H. unfold adds_at.
    assert (E : forall r, (forall x, In x r -> In x (ed_add ed)) ->
                filter (fun x : nat * table => Nat.eqb (fst x) l) r = []).
    { induction r as [|x r IH]; intros Hr; [reflexivity|]. cbn [filter].
      assert (Hx : S (fst x) <= edit_levels ed).
      { unfold edit_levels. apply fold_max_le. apply in_or_app. right. apply in_map_iff. exists x.
        split; [reflexivity|apply Hr; left; reflexivity]. }
      destruct (Nat.eqb (fst x) l) eqn:Q; [apply Nat.eqb_eq in Q; lia|].
      apply IH. intros y Hy. apply Hr. right; exact Hy. }
    rewrite (E (ed_add ed)) by auto. reflexivity.
  Qed.

  Definition level_fn (trivial : bool) (base : list (list table)) (ed : edit) (l : nat) : pres (list table) :=
    finish_level c trivial l (nth l base []) (dels_at ed l (nth l base [])) (adds_at ed l).

  (* if every level finishes with G l, the new version has exactly these levels *)
  Lemma finish_levels trivial base ed (G : nat -> list table) :
    (forall l, level_fn trivial base ed l = POk (G l)) ->
    exists nv, finish c trivial base ed = POk nv /\ forall l, lv nv l = G l.
  Proof.
    intros H. unfold finish. fold (level_fn trivial base ed).
    set (n := Nat.max (length base) (edit_levels ed)).
    rewrite (pres_all_map (level_fn trivial base ed) G) by (intros; apply H). cbn [pbind].
    eexists. split; [reflexivity|]. intros l. unfold lv. rewrite trim_nth.
    destruct (Nat.lt_ge_cases l n) as [Q|Q]; [apply nth_map_seq; exact Q|].
    rewrite nth_overflow by (rewrite map_length, seq_length; exact Q).
    specialize (H l). unfold level_fn in H.
    rewrite (nth_overflow base) in H by lia. rewrite adds_at_high in H by lia.
    cbn in H. injection H as <-. reflexivity.
  Qed.

  Lemma finish_length trivial base ed nv :
    finish c trivial base ed = POk nv -> length nv <= Nat.max (length base) (edit_levels ed).
  Proof.
    unfold finish. intros H. destruct (pres_all _) as [r| |] eqn:E; try discriminate. injection H as <-.
    apply pres_all_length in E. rewrite map_length, seq_length in E. rewrite <- E. apply trim_length.
  Qed.

  (* a level to which nothing is added *)
  Lemma finish_level_no_adds trivial l base dels :
    finish_level c trivial l base dels [] = POk (filter (fun t => negb (memN (t_num t) dels)) base).
  Proof.
    unfold finish_level. destruct dels as [|d dels].
    - f_equal. induction base as [|t base IH]; [reflexivity|]. cbn [filter memN existsb negb]. f_equal. exact IH.
    - f_equal. apply filter_ext. intros t. cbn [nums_of map memN existsb]. rewrite Bool.andb_true_r. reflexivity.
  Qed.

  (* a level >= 1 to which tables are added through the batch insert *)
  Lemma finish_level_adds_deep k base dels adds : adds <> [] ->
    finish_level c true (S k) base dels adds =
    (let nt := filter (fun t => negb (memN (t_num t) dels) && negb (memN (t_num t) (nums_of adds))) base in
     pdo r <- get_range c (sort_by_key c adds);
     POk (firstn (search_min_idx c nt (snd r)) nt ++ sort_by_key c adds ++ skipn (search_min_idx c nt (snd r)) nt)).
  Proof.
    intros H. unfold finish_level. destruct adds as [|a adds']; [congruence|]. destruct dels; reflexivity.
  Qed.

  Lemma finish_level_adds_l0 base dels adds : adds <> [] ->
    finish_level c true 0 base dels adds =
    (let nt := filter (fun t => negb (memN (t_num t) dels) && negb (memN (t_num t) (nums_of adds))) base in
     let idx := search_num_less nt (t_num (last (sort_by_num adds) no_table)) in
     POk (firstn idx nt ++ sort_by_num adds ++ skipn idx nt)).
  Proof.
    intros H. unfold finish_level. destruct adds as [|a adds']; [congruence|]. destruct dels; reflexivity.
  Qed.

  Lemma filter_fst_map {A} (k l : nat) (xs : list A) :
    filter (fun x : nat * A => Nat.eqb (fst x) l) (map (fun t => (k, t)) xs) =
    if Nat.eqb k l then map (fun t => (k, t)) xs else [].
  Proof.
    induction xs as [|x xs IH]; [destruct (Nat.eqb k l); reflexivity|]. cbn [map filter fst]. rewrite IH.
    destruct (Nat.eqb k l); reflexivity.
  Qed.

  Lemma map_snd_pair {A} (k : nat) (xs : list A) : map snd (map (fun t => (k, t)) xs) = xs.
  Proof. induction xs as [|x xs IH]; [reflexivity|]. cbn [map snd]. rewrite IH. reflexivity. Qed.

  Lemma adds_at_ce cm outs l :
    adds_at (compaction_edit cm outs) l = if Nat.eqb (S (c_level cm)) l then outs else [].
  Proof.
    unfold adds_at, compaction_edit. cbn [ed_add]. rewrite filter_fst_map.
    destruct (Nat.eqb (S (c_level cm)) l); [apply map_snd_pair|reflexivity].
  Qed.

  Lemma dels_raw_ce cm outs l :
    map snd (filter (fun x : nat * N => Nat.eqb (fst x) l) (ed_del (compaction_edit cm outs))) =
    (if Nat.eqb (c_level cm) l then nums_of (c_t0 cm) else []) ++
    (if Nat.eqb (S (c_level cm)) l then nums_of (c_t1 cm) else []).
  Proof.
    unfold compaction_edit. cbn [ed_del]. rewrite filter_app, map_app.
    assert (E : forall k (ts : list table),
      map snd (filter (fun x : nat * N => Nat.eqb (fst x) l) (map (fun t => (k, t_num t)) ts)) =
      if Nat.eqb k l then nums_of ts else []).
    { intros k ts. destruct (Nat.eqb k l) eqn:Q; induction ts as [|t ts IH]; cbn [map filter fst]; try reflexivity; rewrite Q.
      - cbn [map snd nums_of]. f_equal. exact IH.
      - exact IH. }
    rewrite !E. reflexivity.
  Qed.
End Finish.
