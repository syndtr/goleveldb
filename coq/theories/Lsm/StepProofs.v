(* Lsm/StepProofs.v — the step lemma of property C06 for a table compaction / trivial move: installing (finish) the
   record of a compaction whose inputs are admissible (closed in the source level, complete in the next level) and whose
   outputs are an ordered run of well-formed tables holding only input entries keeps the invariant WfLsm.wf_lsm. *)
From GL Require Import Lsm.LsmProofs Lsm.Pick Lsm.PickBase Lsm.ExpandProofs Lsm.WfLsm Lsm.FinishProofs Lsm.InsertProofs.
From GL Require Mem.ListLemmas.
From Coq Require Import Arith Lia Permutation.

Local Open Scope nat_scope.

Lemma nil_or_not {A} (l : list A) : l = [] \/ l <> [].
Proof. destruct l; [left; reflexivity|right; discriminate]. Qed.

Lemma memN_nums n ts : memN n (nums_of ts) = true <-> exists t, In t ts /\ t_num t = n.
Proof.
  unfold memN, nums_of. rewrite existsb_exists. split.
  - intros [m [Hm E]]. apply in_map_iff in Hm as [t [<- Ht]]. apply N.eqb_eq in E. exists t. split; [exact Ht|congruence].
  - intros [t [Ht <-]]. exists (t_num t). split; [apply in_map; exact Ht|apply N.eqb_refl].
Qed.

Lemma memN_false n ts : memN n (nums_of ts) = false <-> forall t, In t ts -> t_num t <> n.
Proof.
  split.
  - intros H t Ht E. assert (memN n (nums_of ts) = true) by (apply memN_nums; exists t; split; assumption). congruence.
  - intros H. destruct (memN n (nums_of ts)) eqn:E; [|reflexivity]. apply memN_nums in E as [t [Ht E]].
    exfalso. apply (H t Ht E).
Qed.

Section Step.
  Variable c : comparer.
  Hypothesis ok : comparer_ok c.
  Variable p : kparams.

  Notation wf_lsm := (wf_lsm c p).
  Notation tbl_ok := (tbl_ok c p).

  Variable v : list (list table).
  Hypothesis W : wf_lsm v.
  Variable cm : compaction.
  Variable outs : list table.

  Let L := c_level cm.
  Let t0 := c_t0 cm.
  Let t1 := c_t1 cm.
  Let I := LE (t0 ++ t1).

  (* admissible inputs *)
  Hypothesis A0a : incl t0 (lv v L).
  Hypothesis A0b : incl t1 (lv v (S L)).
  (* a table of the source level sharing a user key with a source input is itself an input — or it is newer (a
     level-0 table flushed after the compaction was picked) *)
  Hypothesis A1 : forall s t x y, In s (lv v L) -> In t t0 -> In x (t_entries s) -> In y (t_entries t) ->
                  e_uk x = e_uk y -> In s t0 \/ (e_seq y < e_seq x)%N.
  Hypothesis A2 : forall s, In s (lv v (S L)) -> ~ In s t1 -> sep c s I.
  (* admissible outputs *)
  Hypothesis O1 : forall o, In o outs -> tbl_ok o.
  Hypothesis O2 : level_sorted c outs.
  Hypothesis O3 : forall o x, In o outs -> In x (t_entries o) -> In x I.
  Hypothesis O4 : uniq (LE outs).
  Hypothesis O5 : forall o o', In o outs -> In o' outs -> t_num o = t_num o' -> o = o'.
  Hypothesis O6 : forall o i s, In o outs -> In s (lv v i) -> t_num s = t_num o ->
                  (i = L /\ In s t0) \/ (i = S L /\ In s t1).

  Let ed := compaction_edit cm outs.
  Let base0 := lv v L.
  Let base1 := lv v (S L).
  Let keep0 := fun t : table => negb (memN (t_num t) (nums_of t0)).
  Let D1 := dels_at ed (S L) base1.
  Let nt := filter (fun t => negb (memN (t_num t) D1) && negb (memN (t_num t) (nums_of outs))) base1.

  (* among the tables of a level, the numbers of a selection identify its members *)
  Lemma in_sel_iff l sel t : incl sel (lv v l) -> In t (lv v l) -> (memN (t_num t) (nums_of sel) = true <-> In t sel).
  Proof.
    intros Hsel Ht. rewrite memN_nums. split.
    - intros [t' [Ht' E]]. destruct (wl_nums c p v W l l t' t (Hsel t' Ht') Ht E) as [_ ->]. exact Ht'.
    - intros H. exists t. split; [exact H|reflexivity].
  Qed.

  Lemma in_t0_iff t : In t base0 -> (memN (t_num t) (nums_of t0) = true <-> In t t0).
  Proof. apply (in_sel_iff L t0 t A0a). Qed.

  Lemma in_t1_iff t : In t base1 -> (memN (t_num t) (nums_of t1) = true <-> In t t1).
  Proof. apply (in_sel_iff (S L) t1 t A0b). Qed.

  Lemma D1_mem n : base1 <> [] -> (memN n D1 = true <-> memN n (nums_of t1) = true /\ memN n (nums_of outs) = false).
  Proof.
    intros Hne. unfold D1, dels_at. destruct base1 as [|b bs] eqn:Eb; [congruence|].
    unfold ed. rewrite dels_raw_ce, adds_at_ce. fold L t0 t1.
    replace (Nat.eqb L (S L)) with false by (symmetry; apply Nat.eqb_neq; lia).
    rewrite Nat.eqb_refl. cbn [app]. unfold memN at 1. rewrite existsb_exists. split.
    - intros [m [Hm E]]. apply N.eqb_eq in E. subst m. apply filter_In in Hm as [H1 H2].
      apply Bool.negb_true_iff in H2. split; [|exact H2].
      unfold memN. apply existsb_exists. exists n. split; [exact H1|apply N.eqb_refl].
    - intros [H1 H2]. exists n. split; [|apply N.eqb_refl]. apply filter_In. split; [|rewrite H2; reflexivity].
      unfold memN in H1. apply existsb_exists in H1 as [m [Hm E]]. apply N.eqb_eq in E. subst m. exact Hm.
  Qed.

  (* the survivors of the next level *)
  Lemma nt_in s : In s nt <-> In s base1 /\ ~ In s t1.
  Proof.
    unfold nt. rewrite filter_In. split.
    - intros [Hs H]. split; [exact Hs|]. apply andb_prop in H as [H1 H2].
      apply Bool.negb_true_iff in H1, H2. intros Hi.
      assert (Hne : base1 <> []) by (intros E; rewrite E in Hs; destruct Hs).
      assert (memN (t_num s) D1 = true); [|congruence].
      apply (D1_mem _ Hne). split; [apply (in_t1_iff s Hs); exact Hi|exact H2].
    - intros [Hs Hn]. split; [exact Hs|].
      assert (Hne : base1 <> []) by (intros E; rewrite E in Hs; destruct Hs).
      assert (Q : memN (t_num s) (nums_of outs) = false).
      { apply memN_false. intros o Ho E. destruct (O6 o (S L) s Ho Hs (eq_sym E)) as [[Q _]|[_ Q]]; [lia|contradiction]. }
      apply andb_true_intro. split; apply Bool.negb_true_iff; [|exact Q].
      destruct (memN (t_num s) D1) eqn:E; [|reflexivity]. apply (D1_mem _ Hne) in E as [E _].
      apply (in_t1_iff s Hs) in E. contradiction.
  Qed.

  (* the levels of the new version *)
  Definition new_level (idx : nat) (l : nat) : list table :=
    if Nat.eqb l L then filter keep0 base0
    else if Nat.eqb l (S L) then firstn idx nt ++ outs ++ skipn idx nt
    else lv v l.

  Lemma level_other l : l <> L -> l <> S L -> level_fn c true v ed l = POk (lv v l).
  Proof.
    intros H1 H2. unfold level_fn, ed. rewrite adds_at_ce. fold L.
    replace (Nat.eqb (S L) l) with false by (symmetry; apply Nat.eqb_neq; lia).
    rewrite finish_level_no_adds. f_equal. apply ListLemmas.filter_all. intros t Ht. apply Bool.negb_true_iff.
    unfold dels_at. destruct (nth l v []); [reflexivity|]. rewrite dels_raw_ce, adds_at_ce. fold L.
    replace (Nat.eqb L l) with false by (symmetry; apply Nat.eqb_neq; lia).
    replace (Nat.eqb (S L) l) with false by (symmetry; apply Nat.eqb_neq; lia). reflexivity.
  Qed.

  Lemma level_src : level_fn c true v ed L = POk (filter keep0 base0).
  Proof.
    unfold level_fn, ed. rewrite adds_at_ce. fold L.
    replace (Nat.eqb (S L) L) with false by (symmetry; apply Nat.eqb_neq; lia).
    rewrite finish_level_no_adds. fold (lv v L). fold base0. f_equal. apply filter_ext_in. intros t Ht. unfold keep0. f_equal.
    unfold dels_at. destruct base0 as [|b bs]; [destruct Ht|]. rewrite dels_raw_ce, adds_at_ce. fold L t0 t1.
    replace (Nat.eqb (S L) L) with false by (symmetry; apply Nat.eqb_neq; lia).
    rewrite Nat.eqb_refl, app_nil_r. cbn [nums_of map memN existsb negb]. f_equal.
    apply ListLemmas.filter_all. intros; reflexivity.
  Qed.

  Lemma level_dst : exists idx, level_fn c true v ed (S L) = POk (firstn idx nt ++ outs ++ skipn idx nt) /\
    (outs <> [] -> exists amax, idx = search_min_idx c nt amax /\ exists a, In a outs /\ amax = imax_of a).
  Proof.
    unfold level_fn. fold (lv v (S L)). fold base1. fold D1.
    assert (Ea : adds_at ed (S L) = outs).
    { unfold ed. rewrite adds_at_ce. fold L. rewrite Nat.eqb_refl. reflexivity. }
    rewrite Ea. destruct (nil_or_not outs) as [Eo|Hne].
    - exists 0. split; [|congruence]. cbn [firstn skipn app]. rewrite Eo at 1 2. cbn [app]. rewrite finish_level_no_adds. f_equal.
      unfold nt. rewrite Eo. apply filter_ext. intros t. cbn [nums_of map memN existsb negb]. rewrite Bool.andb_true_r. reflexivity.
    -
      assert (Es : sort_by_key c outs = outs) by (apply (sort_by_key_sorted c ok p); assumption).
      destruct (get_range_spec c ok outs Hne) as [r [Er _]].
      destruct (get_range_mem c outs r Er) as [a [Ha Em]].
      assert (R : finish_level c true (S L) base1 D1 outs =
                  POk (firstn (search_min_idx c nt (snd r)) nt ++ outs ++ skipn (search_min_idx c nt (snd r)) nt)).
      { rewrite (finish_level_adds_deep c L base1 D1 outs Hne). cbv zeta. rewrite Es, Er. reflexivity. }
      exists (search_min_idx c nt (snd r)). split; [exact R|].
      intros _. exists (snd r). split; [reflexivity|]. exists a. split; assumption.
  Qed.

  Lemma skipn_incl {A} k (l : list A) x : In x (skipn k l) -> In x l.
  Proof. intros H. rewrite <- (firstn_skipn k l). apply in_or_app. right; exact H. Qed.

  Section NewVersion.
    Variable idx : nat.
    Hypothesis Hidx : outs <> [] -> exists amax, idx = search_min_idx c nt amax /\ exists a, In a outs /\ amax = imax_of a.
    Variable nv : list (list table).
    Hypothesis Hnv : forall l, lv nv l = new_level idx l.

    Lemma new_in l t : In t (new_level idx l) ->
      (In t (lv v l) /\ (l = L -> ~ In t t0) /\ (l = S L -> ~ In t t1)) \/ (l = S L /\ In t outs).
    Proof.
      unfold new_level. destruct (Nat.eqb l L) eqn:Q1.
      - apply Nat.eqb_eq in Q1. subst l. intros H. apply filter_In in H as [H1 H2]. left.
        split; [exact H1|]. split; [|lia]. intros _ Hi. apply (in_t0_iff t H1) in Hi.
        unfold keep0 in H2. rewrite Hi in H2. discriminate.
      - apply Nat.eqb_neq in Q1. destruct (Nat.eqb l (S L)) eqn:Q2.
        + apply Nat.eqb_eq in Q2. subst l. intros H. apply in_app_or in H as [H|H]; [|apply in_app_or in H as [H|H]].
          * apply ListLemmas.in_firstn in H. apply nt_in in H as [H1 H2]. left. split; [exact H1|]. split; [lia|intros _; exact H2].
          * right. split; [reflexivity|exact H].
          * apply skipn_incl in H. apply nt_in in H as [H1 H2]. left. split; [exact H1|]. split; [lia|intros _; exact H2].
        + apply Nat.eqb_neq in Q2. intros H. left. split; [exact H|]. split; intros; congruence.
    Qed.

    Lemma I_split x : In x I -> In x (LE (lv v L)) \/ In x (LE (lv v (S L))).
    Proof.
      unfold I. rewrite LE_app. intros H. apply in_app_or in H as [H|H]; apply LE_in in H as [t [Ht Hx]].
      - left. apply LE_in. exists t. split; [apply A0a; exact Ht|exact Hx].
      - right. apply LE_in. exists t. split; [apply A0b; exact Ht|exact Hx].
    Qed.

    Lemma new_tbl l t : In t (lv nv l) -> tbl_ok t.
    Proof.
      rewrite Hnv. intros H. apply new_in in H as [[H _]|[_ H]]; [apply (wl_tbl c p v W l t H)|apply O1; exact H].
    Qed.

    Lemma new_uniq l : uniq (LE (lv nv l)).
    Proof.
      rewrite Hnv. unfold new_level. destruct (Nat.eqb l L) eqn:Q1.
      - apply uniq_filter. apply (wl_uniq c p v W).
      - destruct (Nat.eqb l (S L)) eqn:Q2; [|apply (wl_uniq c p v W)].
        assert (P : Permutation (LE outs ++ LE nt) (LE (firstn idx nt ++ outs ++ skipn idx nt))).
        { rewrite !LE_app. rewrite <- (firstn_skipn idx nt) at 1. rewrite LE_app. apply Permutation_app_swap_app. }
        unfold uniq. eapply Permutation_NoDup; [apply Permutation_map; exact P|]. apply uniq_app.
        split; [exact O4|]. split; [unfold nt; apply uniq_filter; apply (wl_uniq c p v W)|].
        intros x y Hx Hy E. apply LE_in in Hx as [o [Ho Hx]]. apply LE_in in Hy as [s [Hs Hy]].
        apply nt_in in Hs as [Hs1 Hs2]. pose proof (O3 o x Ho Hx) as Hi. unfold I in Hi. rewrite LE_app in Hi.
        unfold keyseq in E. injection E as Eu Es.
        apply in_app_or in Hi as [Hi|Hi]; apply LE_in in Hi as [t [Ht Hxt]].
        + assert (Hx' : In x (LE (lv v L))) by (apply LE_in; exists t; split; [apply A0a; exact Ht|exact Hxt]).
          assert (Hy' : In y (LE (lv v (S L)))) by (apply LE_in; exists s; split; assumption).
          pose proof (wl_chain c p v W L (S L) ltac:(lia) x y Hx' Hy' Eu). lia.
        + apply (uniq_members base1 t s x y (wl_uniq c p v W (S L)) (A0b t Ht) Hs1); try assumption.
          * intros ->. contradiction.
          * unfold keyseq. congruence.
    Qed.

    Lemma new_l0n : nums_sorted (lv nv 0).
    Proof.
      rewrite Hnv. unfold new_level. destruct (Nat.eqb 0 L) eqn:Q1.
      { apply Nat.eqb_eq in Q1. apply nums_sorted_filter. unfold base0. rewrite <- Q1. apply (wl_l0n c p v W). }
      replace (Nat.eqb 0 (S L)) with false by reflexivity. apply (wl_l0n c p v W).
    Qed.

    Lemma nt_tbl s : In s nt -> tbl_ok s.
    Proof. intros H. apply nt_in in H as [H _]. apply (wl_tbl c p v W (S L) s H). Qed.

    Lemma nt_sorted : level_sorted c nt.
    Proof. unfold nt. apply level_sorted_filter. apply (wl_deep c p v W). lia. Qed.

    Lemma new_deep l : 0 < l -> level_sorted c (lv nv l).
    Proof.
      intros Hl. rewrite Hnv. unfold new_level. destruct (Nat.eqb l L) eqn:Q1.
      - apply level_sorted_filter. apply (wl_deep c p v W). apply Nat.eqb_eq in Q1. lia.
      - destruct (Nat.eqb l (S L)) eqn:Q2; [|apply (wl_deep c p v W); exact Hl].
        destruct (nil_or_not outs) as [Eo|Hne].
        + rewrite Eo. cbn [app]. rewrite firstn_skipn. apply nt_sorted.
        + destruct (Hidx Hne) as [amax [Eidx Ha]]. rewrite Eidx.
          apply (insert_sorted c ok p nt outs nt_tbl nt_sorted O1 O2 amax Ha).
          intros s Hs. apply nt_in in Hs as [H1 H2]. apply (sep_incl c s I); [apply A2; assumption|].
          intros x Hx. apply LE_in in Hx as [o [Ho Hx]]. apply (O3 o x Ho Hx).
    Qed.

    Lemma new_chain i j : i < j -> newer_thanP (LE (lv nv i)) (LE (lv nv j)).
    Proof.
      intros Hij a b Ha Hb Eu. rewrite Hnv in Ha, Hb.
      apply LE_in in Ha as [ta [Hta Ha]]. apply LE_in in Hb as [tb [Htb Hb]].
      apply new_in in Hta. apply new_in in Htb.
      assert (Old : forall i' j', i' < j' -> In a (LE (lv v i')) -> In b (LE (lv v j')) -> (e_seq b < e_seq a)%N).
      { intros i' j' Q Ha' Hb'. apply (wl_chain c p v W i' j' Q a b Ha' Hb' Eu). }
      destruct Hta as [[Hta [Sa0 Sa1]]|[Ei Hta]]; destruct Htb as [[Htb [Sb0 Sb1]]|[Ej Htb]].
      - apply (Old i j Hij); apply LE_in; [exists ta|exists tb]; split; assumption.
      - (* b was written by the compaction *)
        subst j. destruct (I_split b (O3 tb b Htb Hb)) as [Hb'|Hb'].
        + assert (Hale : In a (LE (lv v i))) by (apply LE_in; exists ta; split; assumption).
          destruct (Nat.lt_ge_cases i L) as [Q|Q]; [apply (Old i L Q Hale Hb')|].
          assert (i = L) by lia. subst i.
          pose proof (O3 tb b Htb Hb) as Hi. unfold I in Hi. rewrite LE_app in Hi.
          apply in_app_or in Hi as [Hi|Hi]; apply LE_in in Hi as [t [Ht Hbt]].
          * destruct (A1 ta t a b Hta Ht Ha Hbt Eu) as [Q1|Q1]; [exfalso; apply (Sa0 eq_refl Q1)|exact Q1].
          * exfalso. assert (Hb2 : In b (LE (lv v (S L)))) by (apply LE_in; exists t; split; [apply A0b; exact Ht|exact Hbt]).
            pose proof (Old L (S L) ltac:(lia) Hale Hb2) as Q1.
            (* b also lies in level L: the same entry in two levels *)
            pose proof (wl_chain c p v W L (S L) ltac:(lia) b b Hb' Hb2 eq_refl). lia.
        + apply (Old i (S L) Hij); [apply LE_in; exists ta; split; assumption|exact Hb'].
      - (* a was written by the compaction *)
        subst i. assert (Hble : In b (LE (lv v j))) by (apply LE_in; exists tb; split; assumption).
        destruct (I_split a (O3 ta a Hta Ha)) as [Ha'|Ha']; [apply (Old L j ltac:(lia) Ha' Hble)|apply (Old (S L) j Hij Ha' Hble)].
      - lia.
    Qed.

    Lemma new_nums i j t t' : In t (lv nv i) -> In t' (lv nv j) -> t_num t = t_num t' -> i = j /\ t = t'.
    Proof.
      rewrite !Hnv. intros Ht Ht' E. apply new_in in Ht. apply new_in in Ht'.
      destruct Ht as [[Ht [S0 S1]]|[Ei Ht]]; destruct Ht' as [[Ht' [S0' S1']]|[Ej Ht']].
      - apply (wl_nums c p v W i j t t' Ht Ht' E).
      - exfalso. destruct (O6 t' i t Ht' Ht E) as [[Q1 Q2]|[Q1 Q2]]; [apply (S0 Q1 Q2)|apply (S1 Q1 Q2)].
      - exfalso. destruct (O6 t j t' Ht Ht' (eq_sym E)) as [[Q1 Q2]|[Q1 Q2]]; [apply (S0' Q1 Q2)|apply (S1' Q1 Q2)].
      - split; [congruence|apply O5; assumption].
    Qed.

    Lemma new_wf : wf_lsm nv.
    Proof.
      constructor; [exact new_tbl|exact new_uniq|exact new_l0n|exact new_deep|exact new_chain|exact new_nums].
    Qed.
  End NewVersion.

  (* installing the record of an admissible compaction keeps the invariant *)
  Theorem compaction_step : exists nv, finish c true v ed = POk nv /\ wf_lsm nv.
  Proof.
    destruct level_dst as [idx [Ed Hidx]].
    destruct (finish_levels c true v ed (new_level idx)) as [nv [E H]].
    - intros l. unfold new_level. destruct (Nat.eqb l L) eqn:Q1.
      + apply Nat.eqb_eq in Q1. subst l. apply level_src.
      + destruct (Nat.eqb l (S L)) eqn:Q2.
        * apply Nat.eqb_eq in Q2. subst l. exact Ed.
        * apply Nat.eqb_neq in Q1, Q2. apply level_other; assumption.
    - exists nv. split; [exact E|]. apply (new_wf idx Hidx nv H).
  Qed.
End Step.
