(* Lsm/WritePathTheorems.v — the per-step theorems of the byte-level write path in the form Props/C01.v states them:
   the step succeeds, keeps the invariant [bfull] (wf_bstate + the step invariant of property C06 on the abstraction + no
   duplicate (key, seq)), its abstraction is the L1 step (Lsm/Pick.v finish of flush_edit / move_edit / compaction_edit),
   and what readers see: nothing changes (rotation, flush, trivial move) or nothing at sequence numbers >= minSeq
   (table compaction). *)
From GL Require Import Codec.TableSizes Lsm.ReorgProofs Lsm.C06Steps Lsm.Builder Lsm.BuilderCuts Lsm.ReadPath
  Lsm.ReadPathProofs Lsm.WritePath Lsm.WritePathSteps.
Open Scope N_scope.

Section Theorems.
  Variable c : comparer.
  Hypothesis ok : comparer_ok c.
  Variable p : kparams.
  Hypothesis pok : kparams_ok p.
  Hypothesis seek_val : keyTypeSeek p <= keyTypeVal p.
  Variable mp : MemDB.mparams.
  Hypothesis mpok : MemDB.mparams_ok mp.
  Variable tp : tparams.
  Hypothesis tp_ok : tparams_ok tp.
  Variable crc : bytes -> N.
  Hypothesis crc_bound : forall b, crc b < 2 ^ 32.
  Variable compress : bytes -> bytes.
  Variable decompress : bytes -> option bytes.
  Hypothesis codec_ok : forall x, decompress (compress x) = Some x.
  Hypothesis compress_ne : forall x, compress x <> [].
  Variable fname : option bytes.
  Variable ufc : bytes -> N -> bytes -> bool.
  Variable verify : bool.
  Variable o : wopts.
  Hypothesis ri_pos : 1 <= wo_ri o.

  Local Notation ri := (wo_ri o).
  Local Notation absS := (ReadPath.abs c mp tp crc decompress fname ufc verify ri).
  Local Notation atab := (abs_table c tp crc decompress fname ufc verify ri).
  Local Notation okb := (tfile_okb c p tp crc decompress fname ufc verify ri).
  Local Notation getb := (db_get_bytes c p mp tp crc decompress fname ufc verify).
  Local Notation bfull := (bfull c p mp tp crc decompress fname ufc verify o).
  Local Notation tfilt := (table_filter_ok c p tp crc compress decompress fname ufc verify o).
  Local Notation fsz st := (file_size (files_of st)).
  Local Notation blen := (bytes_len c p tp crc compress o).
  Local Notation sizes_ok := (write_sizes_ok c p tp crc compress o).

  Theorem bfull_wf st : bfull st -> wf_bstate c p mp tp crc decompress fname ufc verify ri st.
  Proof. intros B. exact (bf_wf _ _ _ _ _ _ _ _ _ _ _ B). Qed.

  Theorem rotate_bytes st d : bfull st -> bs_mem st = Some d -> bs_frozen st = None ->
    exists st', b_rotate mp st = Some st' /\ bfull st' /\
      st_mem (absS st') = [] /\ st_frozen (absS st') = st_mem (absS st) /\ st_levels (absS st') = st_levels (absS st) /\
      all_entries (absS st') = all_entries (absS st) /\
      forall k s, wf_bytes k -> s <= keyMaxSeq p -> getb st' k s = getb st k s.
  Proof.
    intros B Hm Hf.
    destruct (rotate_step c ok p pok seek_val mp mpok tp crc decompress fname ufc verify o ri_pos st d B Hm Hf)
      as (st' & d0 & E & B' & _ & _ & _ & E1 & E2 & E3 & E4).
    exists st'. repeat (split; [assumption|]).
    apply (reads_same c ok p pok seek_val mp mpok tp crc decompress fname ufc verify o st st' B B'). rewrite E4. intros x; reflexivity.
  Qed.

  Theorem flush_bytes st d num :
    bfull st -> bs_frozen st = Some d ->
    (forall f, In f (files_of st) -> tf_num f <> num) ->
    (forall x, In x (all_entries (absS st)) -> e_seq x <= keyMaxSeq p) ->
    (mem_pairs mp d <> [] -> sizes_ok (mem_pairs mp d) = true) -> tfilt (mem_pairs mp d) ->
    exists st', b_flush c p mp tp crc compress decompress fname ufc verify o num st = Some st' /\ bfull st' /\
      st_mem (absS st') = st_mem (absS st) /\ st_frozen (absS st') = [] /\
      (mem_pairs mp d = [] -> st_levels (absS st') = st_levels (absS st)) /\
      (mem_pairs mp d <> [] ->
         finish c true (st_levels (absS st))
                (flush_edit c p (fsz st) (st_levels (absS st)) (wo_gpOverlaps o) (wo_memMaxLevel o)
                            {| t_num := num; t_entries := st_frozen (absS st) |}) = POk (st_levels (absS st')) /\
         exists f, write_table c p tp crc compress o num (mem_pairs mp d) = Some f /\ okb f = true /\
                   atab f = {| t_num := num; t_entries := st_frozen (absS st) |} /\ In f (files_of st')) /\
      same_elems (all_entries (absS st)) (all_entries (absS st')) /\
      forall k s, wf_bytes k -> s <= keyMaxSeq p -> getb st' k s = getb st k s.
  Proof.
    intros B Hfz Hfresh Hseq Hsz Hfl.
    destruct (flush_step c ok p pok seek_val mp mpok tp tp_ok crc crc_bound compress decompress codec_ok compress_ne fname ufc verify o ri_pos
                st d num B Hfz Hfresh Hseq Hsz) as (st' & E & B' & SE & Em & Ef & El & Hn).
    { destruct Hfl as [Hn|Hf]; [left; exact Hn|right; intros f Hw; apply (Hf num f Hw)]. }
    exists st'. split; [exact E|]. split; [exact B'|].
    split; [cbn [ReadPath.abs st_mem]; rewrite Em; reflexivity|]. split; [cbn [ReadPath.abs st_frozen]; rewrite Ef; reflexivity|].
    split; [intros Q; cbn [ReadPath.abs st_levels]; rewrite (El Q); reflexivity|]. split; [exact Hn|]. split; [exact SE|].
    apply (reads_same c ok p pok seek_val mp mpok tp crc decompress fname ufc verify o st st' B B' SE).
  Qed.

  Theorem move_bytes st lvl seed :
    bfull st -> seed_tables (st_levels (absS st)) lvl seed <> [] ->
    exists cm, new_compaction c (fsz st) (st_levels (absS st)) lvl (wo_expandLimit o lvl) (seed_tables (st_levels (absS st)) lvl seed) = POk cm /\
      (trivial (fsz st) cm (wo_gpOverlaps o lvl) = true ->
       exists st', b_trivial_move c tp crc decompress fname ufc verify o lvl seed st = Some st' /\ bfull st' /\
         st_mem (absS st') = st_mem (absS st) /\ st_frozen (absS st') = st_frozen (absS st) /\
         finish c true (st_levels (absS st)) (move_edit cm) = POk (st_levels (absS st')) /\
         same_elems (all_entries (absS st)) (all_entries (absS st')) /\
         forall k s, wf_bytes k -> s <= keyMaxSeq p -> getb st' k s = getb st k s).
  Proof.
    intros B Hne.
    destruct (move_step c ok p pok seek_val mp mpok tp crc decompress fname ufc verify o ri_pos st lvl seed B Hne) as (cm & Ecm & H).
    exists cm. split; [exact Ecm|]. intros T. destruct (H T) as (st' & E & B' & Em & Ef & Efin & SE).
    exists st'. split; [exact E|]. split; [exact B'|].
    split; [cbn [ReadPath.abs st_mem]; rewrite Em; reflexivity|]. split; [cbn [ReadPath.abs st_frozen]; rewrite Ef; reflexivity|].
    split; [exact Efin|]. split; [exact SE|].
    apply (reads_same c ok p pok seek_val mp mpok tp crc decompress fname ufc verify o st st' B B' SE).
  Qed.

  Theorem compact_bytes st lvl seed os nums minSeq :
    bfull st -> seed_tables (st_levels (absS st)) lvl seed <> [] -> minSeq < keyMaxSeq p ->
    NoDup nums -> (forall n f, In n nums -> In f (files_of st) -> tf_num f <> n) ->
    exists cm, new_compaction c (fsz st) (st_levels (absS st)) lvl (wo_expandLimit o lvl) (seed_tables (st_levels (absS st)) lvl seed) = POk cm /\
      forall s',
        let deeper := skipn (lvl + 2) (st_levels (absS st)) in
        transact c p (fsz st) (c_gp cm) (wo_gpOverlaps o lvl) deeper minSeq (wo_strict o) (wo_tableSize o (S lvl)) blen os
                 (map IGood (merge_inputs c (c_t0 cm ++ c_t1 cm))) (bst0 deeper) = (s', TDone) ->
        length nums = length (fin s') ->
        Forall (fun ch => sizes_ok (chunk_kvs ch) = true /\ tfilt (chunk_kvs ch)) (fin s') ->
        exists st', b_compact c p tp crc compress decompress fname ufc verify o lvl seed os nums minSeq st = Some st' /\ bfull st' /\
          st_mem (absS st') = st_mem (absS st) /\ st_frozen (absS st') = st_frozen (absS st) /\
          outputs_of c p cm minSeq deeper (fin s') /\
          finish c true (st_levels (absS st)) (compaction_edit cm (mk_outputs nums (fin s'))) = POk (st_levels (absS st')) /\
          (forall x, In x (all_entries (absS st')) -> In x (all_entries (absS st))) /\
          forall k s, wf_bytes k -> minSeq <= s -> s <= keyMaxSeq p -> bapi (getb st' k s) = bapi (getb st k s).
  Proof.
    intros B Hne Hms Hnd Hfresh.
    destruct (compact_step c ok p pok seek_val mp mpok tp tp_ok crc crc_bound compress decompress codec_ok compress_ne fname ufc verify o ri_pos
                st lvl seed os nums minSeq B Hne Hms Hnd Hfresh) as (cm & Ecm & H).
    exists cm. split; [exact Ecm|]. intros s' deeper Htr Hlen Hsz.
    destruct (H s' Htr Hlen Hsz) as (st' & E & B' & Em & Ef & Ho & Efin & Hincl & Hreads).
    exists st'. split; [exact E|]. split; [exact B'|].
    split; [cbn [ReadPath.abs st_mem]; rewrite Em; reflexivity|]. split; [cbn [ReadPath.abs st_frozen]; rewrite Ef; reflexivity|].
    split; [exact Ho|]. split; [exact Efin|]. split; [exact Hincl|].
    apply (reads_kept c ok p pok seek_val mp mpok tp crc decompress fname ufc verify o st st' minSeq B B' Hreads).
  Qed.
End Theorems.
