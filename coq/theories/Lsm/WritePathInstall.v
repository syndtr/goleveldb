(* Lsm/WritePathInstall.v — what versionStaging.finish (model Lsm/Pick.v) installs, as a SET of tables per level, for any
   record and both modes (the step theorems of property C06 say that the result is well-formed; the byte-level
   composition also needs to know which tables it holds), and the translation of the new layout back to table FILES by
   file number (Lsm/WritePath.v levels_for). *)
From GL Require Import Lsm.Pick Lsm.FinishProofs Lsm.WfLsm Lsm.ModelStep Lsm.ReadPath Lsm.WritePath.
From GL Require Mem.ListLemmas.
From Coq Require Import Arith Lia.

Local Open Scope nat_scope.

Lemma pres_all_nth {A} (d : A) : forall (l : list (pres A)) r, pres_all l = POk r ->
  length r = length l /\ forall i, i < length l -> nth i l PPanic = POk (nth i r d).
Proof.
  induction l as [|x l IH]; intros r H; cbn [pres_all] in H.
  - injection H as <-. split; [reflexivity|]. intros i Hi. cbn in Hi. lia.
  - destruct x as [a| |]; cbn [pbind] in H; try discriminate.
    destruct (pres_all l) as [b| |] eqn:E; cbn [pbind] in H; try discriminate. injection H as <-.
    destruct (IH b eq_refl) as [L N]. split; [cbn [length]; lia|].
    intros [|i] Hi; cbn [nth]; [reflexivity|]. apply N. cbn [length] in Hi. lia.
Qed.

Lemma ins_num_in t l x : In x (ins_num t l) <-> x = t \/ In x l.
Proof.
  induction l as [|y l IH]; cbn [ins_num]; [cbn; intuition|].
  destruct (t_num y <? t_num t)%N; cbn [In]; [intuition|]. rewrite IH. intuition.
Qed.
Lemma sort_by_num_in l x : In x (sort_by_num l) <-> In x l.
Proof.
  induction l as [|t l IH]; [reflexivity|]. cbn [sort_by_num fold_right]. fold (sort_by_num l).
  rewrite ins_num_in, IH. cbn [In]. intuition.
Qed.

Section Install.
  Variable c : comparer.

  Lemma ins_key_in t l x : In x (ins_key c t l) <-> x = t \/ In x l.
  Proof.
    induction l as [|y l IH]; cbn [ins_key]; [cbn; intuition|].
    destruct (less_by_key c y t); cbn [In]; [rewrite IH; intuition|intuition].
  Qed.
  Lemma sort_by_key_in l x : In x (sort_by_key c l) <-> In x l.
  Proof.
    induction l as [|t l IH]; [reflexivity|]. cbn [sort_by_key fold_right]. fold (sort_by_key c l).
    rewrite ins_key_in, IH. cbn [In]. intuition.
  Qed.

  Lemma in_firstn_skipn {A} k (l mid : list A) x : In x (firstn k l ++ mid ++ skipn k l) <-> In x l \/ In x mid.
  Proof.
    rewrite !in_app_iff. rewrite <- (firstn_skipn k l) at 3. rewrite in_app_iff. intuition.
  Qed.

  (* one level: the tables of the base level that are neither deleted nor re-added, plus the added ones *)
  Lemma finish_level_in tr l base dels adds r : finish_level c tr l base dels adds = POk r ->
    forall t, In t r <->
      (In t base /\ memN (t_num t) dels = false /\ memN (t_num t) (nums_of adds) = false) \/ In t adds.
  Proof.
    intros H t. unfold finish_level in H. cbv zeta in H.
    assert (SN : forall l x, In x (sort_by_num l) <-> In x l) by exact sort_by_num_in.
    assert (SK : forall l x, In x (sort_by_key c l) <-> In x l) by exact sort_by_key_in.
    set (nt := filter (fun t => negb (memN (t_num t) dels) && negb (memN (t_num t) (nums_of adds))) base) in *.
    assert (Hnt : In t nt <-> In t base /\ memN (t_num t) dels = false /\ memN (t_num t) (nums_of adds) = false).
    { unfold nt. rewrite filter_In. split.
      - intros [H1 H2]. apply andb_prop in H2 as [H2 H3]. apply Bool.negb_true_iff in H2, H3. auto.
      - intros [H1 [H2 H3]]. split; [exact H1|]. rewrite H2, H3. reflexivity. }
    destruct dels as [|d0 dels']; destruct adds as [|a0 adds'].
    - injection H as <-. cbn [memN existsb nums_of map In]. intuition.
    - destruct tr.
      + destruct (Nat.eqb l 0).
        * injection H as <-. rewrite in_firstn_skipn, <- Hnt. rewrite <- (SN (a0 :: adds') t). reflexivity.
        * destruct (get_range c (sort_by_key c (a0 :: adds'))) as [rg| |]; cbn [pbind] in H; try discriminate.
          injection H as <-. rewrite in_firstn_skipn, <- Hnt. rewrite <- (SK (a0 :: adds') t). reflexivity.
      + destruct (Nat.eqb l 0); injection H as <-.
        * rewrite (SN (nt ++ a0 :: adds') t), in_app_iff, Hnt. reflexivity.
        * rewrite (SK (nt ++ a0 :: adds') t), in_app_iff, Hnt. reflexivity.
    - injection H as <-. rewrite Hnt. cbn [In]. intuition.
    - destruct tr.
      + destruct (Nat.eqb l 0).
        * injection H as <-. rewrite in_firstn_skipn, <- Hnt. rewrite <- (SN (a0 :: adds') t). reflexivity.
        * destruct (get_range c (sort_by_key c (a0 :: adds'))) as [rg| |]; cbn [pbind] in H; try discriminate.
          injection H as <-. rewrite in_firstn_skipn, <- Hnt. rewrite <- (SK (a0 :: adds') t). reflexivity.
      + destruct (Nat.eqb l 0); injection H as <-.
        * rewrite (SN (nt ++ a0 :: adds') t), in_app_iff, Hnt. reflexivity.
        * rewrite (SK (nt ++ a0 :: adds') t), in_app_iff, Hnt. reflexivity.
  Qed.

  (* the levels of the new version are what finish_level computes *)
  Lemma finish_lv tr v ed nv : finish c tr v ed = POk nv -> forall l, level_fn c tr v ed l = POk (lv nv l).
  Proof.
    unfold finish. fold (level_fn c tr v ed).
    set (n := Nat.max (length v) (edit_levels ed)).
    destruct (pres_all (map (level_fn c tr v ed) (seq 0 n))) as [lvs| |] eqn:E; cbn [pbind]; try discriminate.
    intros H l. injection H as <-. unfold lv. rewrite trim_nth.
    destruct (pres_all_nth [] _ _ E) as [Ln Nn]. rewrite map_length, seq_length in Ln, Nn.
    destruct (Nat.lt_ge_cases l n) as [Q|Q].
    - specialize (Nn l Q). rewrite nth_map_seq in Nn by exact Q. exact Nn.
    - rewrite (nth_overflow lvs) by lia. unfold level_fn.
      rewrite (nth_overflow v) by lia. rewrite adds_at_high by lia. reflexivity.
  Qed.

  Theorem finish_in tr v ed nv : finish c tr v ed = POk nv -> forall l t,
    In t (lv nv l) <->
      (In t (lv v l) /\ memN (t_num t) (dels_at ed l (lv v l)) = false /\ memN (t_num t) (nums_of (adds_at ed l)) = false)
      \/ In t (adds_at ed l).
  Proof.
    intros H l t. pose proof (finish_lv tr v ed nv H l) as E. unfold level_fn in E.
    apply (finish_level_in _ _ _ _ _ _ E).
  Qed.
End Install.

Lemma nodup_concat_levels (v : list (list table)) :
  (forall i, NoDup (nums_of (lv v i))) ->
  (forall i j n, i <> j -> In n (nums_of (lv v i)) -> In n (nums_of (lv v j)) -> False) ->
  NoDup (concat (map nums_of v)).
Proof.
  induction v as [|l v IH]; intros H1 H2; [constructor|]. cbn [map concat].
  apply ListLemmas.NoDup_app_iff. split; [exact (H1 0)|]. split.
  - apply IH.
    + intros i. exact (H1 (S i)).
    + intros i j n Hij. apply (H2 (S i) (S j) n). lia.
  - intros n Hn Hc. apply in_concat in Hc as (x & Hx & Hnx). apply in_map_iff in Hx as (l' & <- & Hl').
    destruct (In_nth _ _ [] Hl') as (j & Hj & Ej). apply (H2 0 (S j) n); [lia|exact Hn|].
    unfold lv. cbn [nth]. rewrite Ej. exact Hnx.
Qed.

Lemma nodup_map_in {A B} (f : A -> B) (l : list A) :
  (forall x y, In x l -> In y l -> f x = f y -> x = y) -> NoDup l -> NoDup (map f l).
Proof.
  induction l as [|a l IH]; intros Hi Hn; [constructor|]. cbn [map]. inversion Hn as [|? ? Ha Hl]; subst. constructor.
  - intros Hin. apply in_map_iff in Hin as (y & E & Hy). apply Ha.
    rewrite (Hi a y (or_introl eq_refl) (or_intror Hy) (eq_sym E)). exact Hy.
  - apply IH; [|exact Hl]. intros x y Hx Hy. apply Hi; right; assumption.
Qed.

Lemma wf_lsm_nodup_nums c p v : wf_lsm c p v -> NoDup (concat (map nums_of v)).
Proof.
  intros W. apply nodup_concat_levels.
  - intros i. unfold nums_of. apply nodup_map_in.
    + intros t t' Ht Ht' E. apply (wl_nums c p v W i i t t' Ht Ht' E).
    + apply (lv_nodup c p v W).
  - intros i j n Hij Hi Hj. apply in_map_iff in Hi as (t & <- & Ht). apply in_map_iff in Hj as (t' & E & Ht').
    destruct (wl_nums c p v W j i t' t Ht' Ht E) as [Q _]. congruence.
Qed.

Section Files.
  Variable c : comparer.
  Variable tp : Table.tparams.
  Variable crc : bytes -> N.
  Variable decompress : bytes -> option bytes.
  Variable fname : option bytes.
  Variable ufc : bytes -> N -> bytes -> bool.
  Variable verify : bool.
  Variable ri : N.

  Local Notation atab := (abs_table c tp crc decompress fname ufc verify ri).

  Lemma find_file_some fs n f : find_file fs n = Some f -> In f fs /\ tf_num f = n.
  Proof. unfold find_file. intros H. apply find_some in H as [H1 H2]. split; [exact H1|]. apply N.eqb_eq. exact H2. Qed.

  Lemma find_file_uniq fs f : NoDup (map tf_num fs) -> In f fs -> find_file fs (tf_num f) = Some f.
  Proof.
    unfold find_file. induction fs as [|g fs IH]; intros Hn Hin; [destruct Hin|].
    cbn [map] in Hn. inversion Hn as [|? ? Hg Hn']; subst. cbn [find].
    destruct Hin as [->|Hin]; [rewrite N.eqb_refl; reflexivity|].
    destruct (tf_num g =? tf_num f)%N eqn:E.
    - exfalso. apply Hg. apply N.eqb_eq in E. rewrite E. apply in_map. exact Hin.
    - apply IH; assumption.
  Qed.

  Lemma files_for_ok fs : NoDup (map tf_num fs) -> forall ts,
    (forall t, In t ts -> exists f, In f fs /\ atab f = t) ->
    exists l, files_for fs ts = Some l /\ map atab l = ts /\ incl l fs.
  Proof.
    intros Hn. induction ts as [|t ts IH]; intros H.
    - exists []. split; [reflexivity|]. split; [reflexivity|]. intros x [].
    - destruct (H t (or_introl eq_refl)) as (f & Hf & Ef).
      destruct (IH (fun t' Ht' => H t' (or_intror Ht'))) as (l & El & Ml & Il).
      exists (f :: l). cbn [files_for]. replace (t_num t) with (tf_num f) by (rewrite <- Ef; reflexivity).
      rewrite (find_file_uniq fs f Hn Hf), El. split; [reflexivity|]. split; [cbn [map]; rewrite Ef, Ml; reflexivity|].
      intros x [<-|Hx]; [exact Hf|apply Il; exact Hx].
  Qed.

  Lemma levels_for_ok fs : NoDup (map tf_num fs) -> forall v,
    (forall t, In t (concat v) -> exists f, In f fs /\ atab f = t) ->
    exists lvs, levels_for fs v = Some lvs /\ map (map atab) lvs = v /\ incl (concat lvs) fs.
  Proof.
    intros Hn. induction v as [|l v IH]; intros H.
    - exists []. split; [reflexivity|]. split; [reflexivity|]. intros x [].
    - destruct (files_for_ok fs Hn l (fun t Ht => H t ltac:(cbn [concat]; apply in_or_app; left; exact Ht))) as (a & Ea & Ma & Ia).
      destruct (IH (fun t Ht => H t ltac:(cbn [concat]; apply in_or_app; right; exact Ht))) as (b & Eb & Mb & Ib).
      exists (a :: b). cbn [levels_for]. rewrite Ea, Eb. split; [reflexivity|]. split; [cbn [map]; rewrite Ma, Mb; reflexivity|].
      cbn [concat]. intros x Hx. apply in_app_or in Hx as [Hx|Hx]; [apply Ia|apply Ib]; exact Hx.
  Qed.

  (* the numbers of the files of a state are the numbers of its abstract tables *)
  Lemma files_nums (lvls : list (list tfile)) :
    map tf_num (concat lvls) = concat (map nums_of (map (map atab) lvls)).
  Proof.
    induction lvls as [|l lvls IH]; [reflexivity|]. cbn [concat map]. rewrite map_app, IH. f_equal.
    unfold nums_of. rewrite map_map. reflexivity.
  Qed.
End Files.
