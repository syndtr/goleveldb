(* Lsm/WfLsm.v — the invariant of the step theorems (property C06) in per-level form, that it implies the read-path
   invariant LsmProofs.wf_state, and that the boolean Pick.wf_lsmb (evaluated inside Coq on the versions the running
   code installs) implies it. *)
From GL Require Import Base.OrderPre Base.OrderProofs Lsm.LsmProofs Lsm.WfProofs Lsm.Pick Lsm.PickBase.
From GL Require Mem.ListLemmas.
From Coq Require Import Arith Lia.

Local Open Scope nat_scope.

Notation LE := LsmProofs.level_entries.

Lemma LE_app a b : LE (a ++ b) = LE a ++ LE b.
Proof. unfold LE. rewrite map_app, concat_app. reflexivity. Qed.

Lemma LE_in ts x : In x (LE ts) <-> exists t, In t ts /\ In x (t_entries t).
Proof.
  unfold LE. rewrite in_concat. split.
  - intros [l [Hl Hx]]. apply in_map_iff in Hl as [t [<- Ht]]. exists t. split; assumption.
  - intros [t [Ht Hx]]. exists (t_entries t). split; [apply in_map; exact Ht|exact Hx].
Qed.

Lemma uniq_app a b : uniq (a ++ b) <-> uniq a /\ uniq b /\ (forall x y, In x a -> In y b -> keyseq x <> keyseq y).
Proof.
  unfold uniq. rewrite map_app, ListLemmas.NoDup_app_iff. split; intros [H1 [H2 H3]]; repeat split; try assumption.
  - intros x y Hx Hy E. apply (H3 (keyseq x)); [apply in_map; exact Hx|rewrite E; apply in_map; exact Hy].
  - intros k Ha Hb. apply in_map_iff in Ha as [x [<- Hx]]. apply in_map_iff in Hb as [y [E Hy]].
    apply (H3 x y Hx Hy). congruence.
Qed.

Lemma uniq_inj l a b : uniq l -> In a l -> In b l -> e_uk a = e_uk b -> e_seq a = e_seq b -> a = b.
Proof.
  intros U Ha Hb Hu Hs. apply (ListLemmas.NoDup_map_inj keyseq l a b U Ha Hb). unfold keyseq. congruence.
Qed.

Lemma uniq_filter f ts : uniq (LE ts) -> uniq (LE (filter f ts)).
Proof.
  induction ts as [|t ts IH]; [auto|]. unfold LE in *. cbn [map concat filter]. intros H.
  apply uniq_app in H as [H1 [H2 H3]]. destruct (f t); [|apply IH; exact H2].
  cbn [map concat]. apply uniq_app. split; [exact H1|]. split; [apply IH; exact H2|].
  intros x y Hx Hy. apply H3; [exact Hx|].
  apply LE_in in Hy as [t' [Ht' Hy]]. apply LE_in. exists t'. split; [|exact Hy]. apply filter_In in Ht'. apply Ht'.
Qed.

(* two different members of a list of tables whose entries are unique do not share (user key, seq) *)
Lemma uniq_members ts s t x y : uniq (LE ts) -> In s ts -> In t ts -> s <> t ->
  In x (t_entries s) -> In y (t_entries t) -> keyseq x <> keyseq y.
Proof.
  induction ts as [|u ts IH]; intros U Hs Ht Hne Hx Hy; [destruct Hs|].
  unfold LE in U. cbn [map concat] in U. apply uniq_app in U as [U1 [U2 U3]].
  destruct Hs as [->|Hs]; destruct Ht as [->|Ht].
  - congruence.
  - apply U3; [exact Hx|]. apply LE_in. exists t. split; assumption.
  - intros E. apply (U3 y x); [exact Hy| |symmetry; exact E]. apply LE_in. exists s. split; assumption.
  - apply (IH U2 Hs Ht Hne Hx Hy).
Qed.

Lemma uniq_sub ts l : NoDup ts -> incl ts l -> uniq (LE l) -> uniq (LE ts).
Proof.
  induction ts as [|t ts IH]; intros N I U; [constructor|].
  apply NoDup_cons_iff in N as [N1 N2]. unfold LE. cbn [map concat]. apply uniq_app.
  assert (Ht : In t l) by (apply I; left; reflexivity).
  split.
  - clear -U Ht. induction l as [|u l IHl]; [destruct Ht|]. unfold LE in U. cbn [map concat] in U.
    apply uniq_app in U as [U1 [U2 _]]. destruct Ht as [->|Ht]; [exact U1|apply IHl; assumption].
  - split; [apply IH; [exact N2|intros u Hu; apply I; right; exact Hu|exact U]|].
    intros x y Hx Hy. apply LE_in in Hy as [t' [Ht' Hy]].
    apply (uniq_members l t t' x y U Ht); [apply I; right; exact Ht'| |exact Hx|exact Hy].
    intros ->. contradiction.
Qed.

Section Inv.
  Variable c : comparer.
  Hypothesis ok : comparer_ok c.
  Variable p : kparams.
  Hypothesis pok : kparams_ok p.

  Definition lv (v : list (list table)) (i : nat) : list table := nth i v [].

  Fixpoint nums_sorted (l : list table) : Prop :=
    match l with
    | [] => True
    | a :: r => Forall (fun b => (t_num b < t_num a)%N) r /\ nums_sorted r
    end.

  (* The invariant: every table non-empty, strictly ordered, valid kinds; in every level no two entries share user key
     and sequence number; level 0 ordered by strictly descending file number; every deeper level ordered with pairwise
     disjoint user-key ranges; for one user key every entry of a shallower level is newer than every entry of a deeper
     level; live tables have pairwise different numbers. *)
  Record wf_lsm (v : list (list table)) : Prop := {
    wl_tbl : forall i t, In t (lv v i) -> tbl_ok c p t;
    wl_uniq : forall i, uniq (LE (lv v i));
    wl_l0n : nums_sorted (lv v 0);
    wl_deep : forall i, 0 < i -> level_sorted c (lv v i);
    wl_chain : forall i j, i < j -> newer_thanP (LE (lv v i)) (LE (lv v j));
    wl_nums : forall i j t t', In t (lv v i) -> In t' (lv v j) -> t_num t = t_num t' -> i = j /\ t = t'
  }.

  Lemma chain_of_nth (v : list (list table)) :
    (forall i j, i < j -> newer_thanP (LE (lv v i)) (LE (lv v j))) -> chain_newer (map LE v).
  Proof.
    induction v as [|l v IH]; intros H; [exact I|]. cbn [map chain_newer]. split.
    - rewrite Forall_forall. intros y Hy. apply in_map_iff in Hy as [l' [<- Hl']].
      destruct (In_nth _ _ [] Hl') as [j [Hj E]]. specialize (H 0 (S j) ltac:(lia)).
      unfold lv in H. cbn [nth] in H. rewrite E in H. exact H.
    - apply IH. intros i j Hij. apply (H (S i) (S j)). lia.
  Qed.

  Theorem wf_lsm_wf_state v : wf_lsm v ->
    wf_state c p {| st_mem := []; st_frozen := []; st_aux := []; st_levels := v |}.
  Proof.
    intros W. assert (E : hd [] v = lv v 0) by (destruct v; reflexivity). apply (wf_state_version c p).
    - rewrite E. apply Forall_forall. intros t Ht. apply (wl_tbl v W 0 t Ht).
    - rewrite E. apply (wl_uniq v W).
    - rewrite Forall_forall. intros l Hl. destruct (In_nth _ _ [] Hl) as [j [Hj Ej]].
      assert (E2 : l = lv v (S j)) by (unfold lv; destruct v; [destruct Hl|cbn [nth tl] in *; congruence]).
      rewrite E2. split; [|apply (wl_deep v W); lia].
      apply Forall_forall. intros t Ht. apply (wl_tbl v W (S j) t Ht).
    - apply chain_of_nth. apply (wl_chain v W).
  Qed.

  Lemma nums_desc_sorted l : nums_desc l = true -> nums_sorted l.
  Proof.
    induction l as [|a l IH]; intros H; [exact I|]. destruct l as [|b l']; [split; [constructor|exact I]|].
    cbn [nums_desc] in H. apply andb_prop in H as [H1 H2]. specialize (IH H2). split; [|exact IH].
    apply N.ltb_lt in H1. constructor; [exact H1|]. destruct IH as [Hall _].
    rewrite Forall_forall in *. intros x Hx. specialize (Hall x Hx). lia.
  Qed.

  Lemma levels_newer_nth v : levels_newer c v = true ->
    forall i j, i < j -> newer_thanP (LE (lv v i)) (LE (lv v j)).
  Proof.
    induction v as [|l v IH]; intros H i j Hij.
    - unfold lv. rewrite !nth_overflow by (cbn; lia). intros a b [].
    - cbn [levels_newer] in H. apply andb_prop in H as [H1 H2].
      destruct j as [|j]; [lia|]. destruct i as [|i].
      + unfold lv. cbn [nth]. destruct (Nat.lt_ge_cases j (length v)) as [Q|Q].
        * rewrite forallb_forall in H1. apply (newer_than_P c ok). apply H1. apply nth_In. exact Q.
        * rewrite (nth_overflow v [] Q). intros a b _ [].
      + apply (IH H2 i j). lia.
  Qed.

  Lemma nodupN_NoDup l : nodupN l = true -> NoDup l.
  Proof.
    induction l as [|a l IH]; intros H; [constructor|]. cbn [nodupN] in H. apply andb_prop in H as [H1 H2].
    constructor; [|apply IH; exact H2]. intros Ha. apply Bool.negb_true_iff in H1.
    unfold memN in H1. assert (existsb (N.eqb a) l = true); [|congruence].
    apply existsb_exists. exists a. split; [exact Ha|apply N.eqb_refl].
  Qed.

  Lemma nodup_concat_levels {A} (ls : list (list A)) i j x :
    NoDup (concat ls) -> In x (nth i ls []) -> In x (nth j ls []) -> i = j.
  Proof.
    revert i j; induction ls as [|l ls IH]; intros i j N Hi Hj; [destruct i; destruct Hi|].
    cbn [concat] in N. apply ListLemmas.NoDup_app_iff in N as [N1 [N2 N3]].
    destruct i as [|i]; destruct j as [|j]; cbn [nth] in *; [reflexivity| | |f_equal; apply (IH i j N2 Hi Hj)].
    - exfalso. apply (N3 x Hi). apply in_concat. exists (nth j ls []). split; [|exact Hj].
      destruct (Nat.lt_ge_cases j (length ls)) as [Q|Q]; [apply nth_In; exact Q|].
      rewrite (nth_overflow ls [] Q) in Hj. destruct Hj.
    - exfalso. apply (N3 x Hj). apply in_concat. exists (nth i ls []). split; [|exact Hi].
      destruct (Nat.lt_ge_cases i (length ls)) as [Q|Q]; [apply nth_In; exact Q|].
      rewrite (nth_overflow ls [] Q) in Hi. destruct Hi.
  Qed.

  Lemma nodup_concat_level {A} (ls : list (list A)) i : NoDup (concat ls) -> NoDup (nth i ls []).
  Proof.
    revert i; induction ls as [|l ls IH]; intros i N; [destruct i; constructor|].
    cbn [concat] in N. apply ListLemmas.NoDup_app_iff in N as [N1 [N2 _]].
    destruct i as [|i]; cbn [nth]; [exact N1|apply IH; exact N2].
  Qed.

  Lemma in_level_concat (v : list (list table)) i t : In t (lv v i) -> In t (concat v).
  Proof.
    intros H. apply in_concat. exists (lv v i). split; [|exact H]. unfold lv in *.
    destruct (Nat.lt_ge_cases i (length v)) as [Q|Q]; [apply nth_In; exact Q|].
    rewrite (nth_overflow v [] Q) in H. destruct H.
  Qed.

  Theorem wf_lsmb_sound v : wf_lsmb c p v = true -> wf_lsm v.
  Proof.
    unfold wf_lsmb, wf_versionb, wf_extrab. intros H. apply andb_prop in H as [H X].
    apply andb_prop in H as [H H3]. apply andb_prop in H as [H1 H2]. apply andb_prop in X as [X1 X2].
    assert (T : forall i t, In t (lv v i) -> tbl_ok c p t).
    { intros i t Ht. rewrite forallb_forall in H1. apply (ptable_okb_ok c (comparer_ok_pre c ok) p). apply H1.
      apply (in_level_concat v i). exact Ht. }
    constructor.
    - exact T.
    - intros i. unfold lv. destruct (Nat.lt_ge_cases i (length v)) as [Q|Q].
      + rewrite forallb_forall in X1. apply uniqb_nodup. apply X1. apply nth_In. exact Q.
      + rewrite (nth_overflow v [] Q). constructor.
    - destruct v as [|l0 rest]; [exact I|]. apply andb_prop in H2 as [H2 _]. apply andb_prop in H2 as [H2 _].
      apply nums_desc_sorted. exact H2.
    - intros i Hi. destruct v as [|l0 rest]; [unfold lv; rewrite nth_overflow by (cbn; lia); exact I|].
      apply andb_prop in H2 as [_ H2]. destruct i as [|i]; [lia|]. unfold lv. cbn [nth].
      destruct (Nat.lt_ge_cases i (length rest)) as [Q|Q]; [|rewrite (nth_overflow rest [] Q); exact I].
      rewrite forallb_forall in H2.
      apply (plevel_disjoint_sorted c (comparer_ok_pre c ok) p).
      + apply Forall_forall. intros t Ht. apply (T (S i) t). exact Ht.
      + intros t Ht. apply (T (S i) t). exact Ht.
      + apply H2. apply nth_In. exact Q.
    - apply levels_newer_nth. exact H3.
    - intros i j t t' Ht Ht' E. apply nodupN_NoDup in X2.
      assert (Hi : In (t_num t) (nth i (map nums_of v) [])).
      { change [] with (nums_of []). rewrite map_nth. apply in_map. exact Ht. }
      assert (Hj : In (t_num t) (nth j (map nums_of v) [])).
      { change [] with (nums_of []). rewrite map_nth, E. apply in_map. exact Ht'. }
      pose proof (nodup_concat_levels _ i j _ X2 Hi Hj) as ->. split; [reflexivity|].
      pose proof (nodup_concat_level _ j X2) as ND. change [] with (nums_of []) in ND. rewrite map_nth in ND.
      apply (ListLemmas.NoDup_map_inj t_num (nth j v []) t t' ND Ht Ht' E).
  Qed.

  Lemma wf_uniq_global v i j a b : wf_lsm v -> In a (LE (lv v i)) -> In b (LE (lv v j)) ->
    e_uk a = e_uk b -> e_seq a = e_seq b -> a = b.
  Proof.
    intros W Ha Hb Hu Hs. destruct (Nat.lt_trichotomy i j) as [Q|[->|Q]].
    - pose proof (wl_chain v W i j Q a b Ha Hb Hu). lia.
    - apply (uniq_inj (LE (lv v j)) a b (wl_uniq v W j) Ha Hb Hu Hs).
    - pose proof (wl_chain v W j i Q b a Hb Ha (eq_sym Hu)). lia.
  Qed.

  (* two tables of one level that share a user key are the same table, for levels >= 1 *)
  Lemma level_sorted_share ts s t x y : level_sorted c ts -> In s ts -> In t ts ->
    In x (t_entries s) -> In y (t_entries t) -> e_uk x = e_uk y -> s = t.
  Proof.
    intros Hs Hi Hj Hx Hy Hu.
    apply (in_nth_ex no_table) in Hi as [i [Hi <-]]. apply (in_nth_ex no_table) in Hj as [j [Hj <-]].
    destruct (Nat.lt_trichotomy i j) as [Q|[->|Q]]; [|reflexivity|].
    - pose proof (level_sorted_pair c ts i j Hs Q Hj x y Hx Hy) as L. rewrite Hu, (cmp_refl c ok) in L. discriminate.
    - pose proof (level_sorted_pair c ts j i Hs Q Hi y x Hy Hx) as L. rewrite Hu, (cmp_refl c ok) in L. discriminate.
  Qed.
End Inv.
