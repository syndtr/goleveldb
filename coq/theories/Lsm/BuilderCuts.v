(* Lsm/BuilderCuts.v — the failure-free run of tableCompactionBuilder (model Lsm/Builder.v) on entries whose keys all
   parse, ordered by user key, with ordered disjoint levels below the output level:
     - the tables it writes, concatenated, are exactly Compact.drop_run with the stateless base-level test (the model that
       drop_rule_sound / compaction_preserves speak about); dropCnt counts the dropped entries, kerrCnt stays 0;
     - the concrete cut rule (shouldStopBefore / needFlush looked at only at the first occurrence of a user key) yields
       Compact.cuts_ok: no table is empty and no user key spans two tables.
   With BuilderProofs.retry_invariant this holds for what is installed after any history of transient failures. *)
From GL Require Import Lsm.LsmProofs Lsm.PickBase Lsm.Builder Lsm.BuilderBase Lsm.BuilderProofs.
From Coq Require Import Lia.

Local Open Scope nat_scope.

Section Cuts.
  Variable c : comparer.
  Hypothesis ok : comparer_ok c.
  Variable p : kparams.
  Variable sz : table -> N.
  Variable gp : list table.
  Variable maxgp : N.
  Variable deeper : list (list table).
  Hypothesis Dok : Forall (lvl_ok c p) deeper.
  Variable minSeq : N.
  Variable strict : bool.
  Variable tableSize : N.
  Variable tsize : list item -> N.

  Notation lt := (Order.lt c).
  Notation le := (Order.le c).
  Notation run_loop := (run_loop c p sz gp maxgp deeper minSeq strict tableSize tsize).
  Notation step_good := (step_good c p sz gp maxgp deeper minSeq tableSize tsize).
  Notation run_attempt := (run_attempt c p sz gp maxgp deeper minSeq strict tableSize tsize).
  Notation transact := (transact c p sz gp maxgp deeper minSeq strict tableSize tsize).
  Notation phaseA := (phaseA c p sz gp maxgp tableSize tsize).
  Notation phaseB := (phaseB c p deeper minSeq).
  Notation K := (drop_run c p minSeq (is_base c deeper)).
  Notation bst0 := (bst0 deeper).

  Definition fin (s : bst) : list (list entry) := map good_entries (out_items s).
  Definition cur (s : bst) : list entry := match tw s with Some w => good_entries (w_items w) | None => [] end.
  Definition total (s : bst) : list entry := concat (fin s) ++ cur s.
  Definition lastof (s : bst) : option (bytes * N) := if has s then Some (ukey s, lseq s) else None.
  Definition goods (l : list item) : Prop := Forall (fun it => is_good it = true) l.
  Definition all_good (s : bst) : Prop :=
    Forall (fun o => goods (o_items o)) (recs s) /\ forall w, tw s = Some w -> goods (w_items w).

  Fixpoint uk_sorted (l : list entry) : Prop :=
    match l with
    | [] => True
    | a :: l' => (forall b, In b l' -> le (e_uk a) (e_uk b)) /\ uk_sorted l'
    end.

  Lemma ssorted_uk_sorted l : ssorted c l -> uk_sorted l.
  Proof.
    induction l as [|a l IH]; [intros _; exact I|]. intros [Hall Hs]. split; [|apply IH; exact Hs].
    intros b Hb. rewrite Forall_forall in Hall. specialize (Hall b Hb). unfold ecmp, icmp in Hall. cbn [uk e_ikey] in Hall.
    unfold Order.le. destruct (cmp c (e_uk a) (e_uk b)); congruence.
  Qed.

  Lemma good_entries_app a b : good_entries (a ++ b) = good_entries a ++ good_entries b.
  Proof. unfold good_entries. rewrite map_app, concat_app. reflexivity. Qed.

  Lemma good_entries_map l : good_entries (map IGood l) = l.
  Proof. induction l as [|x l IH]; [reflexivity|]. unfold good_entries in *. cbn [map concat app]. rewrite IH. reflexivity. Qed.

  Lemma goods_map l : goods l -> map IGood (good_entries l) = l.
  Proof.
    induction 1 as [|x l Hx _ IH]; [reflexivity|]. destruct x as [e|k v]; [|discriminate].
    unfold good_entries in *. cbn [map concat app]. rewrite IH. reflexivity.
  Qed.

  Lemma cuts_ok_snoc outs o : cuts_ok c outs = true -> o <> [] ->
    (forall x y, In x (concat outs) -> In y o -> lt (e_uk x) (e_uk y)) -> cuts_ok c (outs ++ [o]) = true.
  Proof.
    induction outs as [|a rest IH]; intros H Ho Hsep.
    - destruct o; [congruence|reflexivity].
    - cbn [app]. cbn [cuts_ok] in H. apply andb_prop in H as [H H3]. apply andb_prop in H as [H1 H2].
      assert (IHr : cuts_ok c (rest ++ [o]) = true).
      { apply IH; [exact H3|exact Ho|]. intros x y Hx Hy. apply Hsep; [cbn [concat]; apply in_or_app; right; exact Hx|exact Hy]. }
      destruct rest as [|o2 r].
      + cbn [app]. cbn [cuts_ok]. rewrite H1. cbn [andb].
        destruct a as [|a0 a']; [discriminate|]. destruct o as [|y o']; [congruence|].
        rewrite (last_map_some (a0 :: a') no_entry) by discriminate. cbn [hd_error].
        assert (L : lt (e_uk (last (a0 :: a') no_entry)) (e_uk y)).
        { apply Hsep; [cbn [concat]; rewrite app_nil_r|left; reflexivity].
          apply (last_some_in (a0 :: a')). apply last_map_some. discriminate. }
        unfold Order.lt in L. rewrite L. reflexivity.
      + cbn [app] in *. cbn [cuts_ok]. cbn [cuts_ok] in IHr. rewrite H1, H2. cbn [andb]. exact IHr.
  Qed.

  (* the invariant of the failure-free loop on good, ordered entries; l = the entries still to come *)
  Record inv2 (s : bst) (l : list entry) : Prop := {
    i_cuts : cuts_ok c (fin s) = true;
    i_le : has s = true -> forall x, In x (total s) -> le (e_uk x) (ukey s);
    i_has : total s <> [] -> has s = true;
    i_none : tw s = None -> forall x, In x (concat (fin s)) -> lt (e_uk x) (ukey s);
    i_some : forall w, tw s = Some w ->
             cur s <> [] /\ tw_empty w = false /\
             forall x y, In x (concat (fin s)) -> In y (cur s) -> lt (e_uk x) (e_uk y);
    i_next : has s = true -> forall e, In e l -> le (ukey s) (e_uk e);
    i_ptrs : forall e, In e l -> ptrs_ok c (e_uk e) deeper (cs_ptrs (cs s));
    i_good : all_good s
  }.

  Lemma should_stop_ptrs x ik : cs_ptrs (snd (should_stop c sz gp maxgp x ik)) = cs_ptrs x.
  Proof.
    unfold should_stop. destruct (ssb_loop c sz (skipn (cs_gpi x) gp) (cs_gpi x) (cs_seen x) (cs_bytes x) ik) as [g b].
    destruct (maxgp <? b)%N; reflexivity.
  Qed.

  Lemma inv2_set_cs s l x : cs_ptrs x = cs_ptrs (cs s) -> inv2 s l -> inv2 (set_cs s x) l.
  Proof.
    intros E [H1 H2 H3 H4 H5 H6 H7 H8]. constructor; try assumption.
    intros e He. cbn [cs set_cs]. rewrite E. apply H7. exact He.
  Qed.

  Lemma concat_snoc {A} (l : list (list A)) x : concat (l ++ [x]) = concat l ++ x.
  Proof. rewrite concat_app. cbn [concat]. rewrite app_nil_r. reflexivity. Qed.

  (* a new, larger user key becomes the current one *)
  Lemma inv2_new_key s l u q : inv2 s l -> (has s = true -> lt (ukey s) u) -> (forall b, In b l -> le u (e_uk b)) ->
    inv2 (set_last s true u q) l.
  Proof.
    intros I Lt1 Hnext.
    assert (Hh : forall x, In x (total s) -> has s = true) by (intros x Hx; apply (i_has s _ I); intros Q; rewrite Q in Hx; destruct Hx).
    constructor.
    - apply (i_cuts s _ I).
    - intros _ x Hx. change (In x (total s)) in Hx. apply (OrderProofs.lt_le c).
      apply (OrderProofs.le_lt_trans c ok _ (ukey s)); [apply (i_le s _ I (Hh x Hx) x Hx)|apply Lt1; apply (Hh x Hx)].
    - intros _. reflexivity.
    - intros T x Hx. change (tw s = None) in T. change (In x (concat (fin s))) in Hx.
      assert (Hx' : In x (total s)) by (unfold total; apply in_or_app; left; exact Hx).
      apply (OrderProofs.lt_trans c ok _ (ukey s)); [apply (i_none s _ I T x Hx)|apply Lt1; apply (Hh x Hx')].
    - intros w Hw. apply (i_some s _ I w Hw).
    - intros _ b Hb. apply Hnext. exact Hb.
    - intros b Hb. apply (i_ptrs s _ I b Hb).
    - apply (i_good s _ I).
  Qed.

  (* phase A: shouldStopBefore, the first-occurrence block *)
  Lemma phaseA_inv i e l' s : inv2 s (e :: l') -> uk_sorted (e :: l') ->
    exists s3, phaseA o_ok false i e s = SCont s3 /\ inv2 s3 (e :: l') /\
      has s3 = true /\ ukey s3 = e_uk e /\ lseq s3 = last_seq c p (lastof s) e /\
      total s3 = total s /\ kerr s3 = kerr s /\ drop s3 = drop s.
  Proof.
    intros I [Hsort _]. unfold BuilderProofs.phaseA.
    destruct (should_stop c sz gp maxgp (cs s) (e_ikey e)) as [stop cs1] eqn:ES.
    assert (Ep : cs_ptrs cs1 = cs_ptrs (cs s)).
    { pose proof (should_stop_ptrs (cs s) (e_ikey e)) as Q. rewrite ES in Q. exact Q. }
    pose proof (inv2_set_cs s (e :: l') cs1 Ep I) as I1.
    set (s1 := set_cs s cs1) in *.
    assert (Le : has s = true -> le (ukey s) (e_uk e)) by (intros Hh; apply (i_next s _ I Hh); left; reflexivity).
    destruct (first_occ c s1 (e_uk e)) eqn:F.
    - (* first occurrence of this user key *)
      assert (Lt1 : has s = true -> lt (ukey s) (e_uk e)).
      { intros Hh. specialize (Le Hh). unfold first_occ in F. cbn [has ukey set_cs s1] in F. rewrite Hh in F. cbn [negb orb] in F.
        unfold Order.lt, Order.le in *. destruct (cmp c (ukey s) (e_uk e)); congruence. }
      assert (Els : last_seq c p (lastof s) e = keyMaxSeq p).
      { unfold last_seq, lastof. destruct (has s) eqn:Hh; [|reflexivity]. rewrite (Lt1 eq_refl). reflexivity. }
      assert (Hnext : forall b, In b (e :: l') -> le (e_uk e) (e_uk b)).
      { intros b [<-|Hb]; [apply (OrderProofs.le_refl c ok)|apply Hsort; exact Hb]. }
      destruct (tw s1) as [w|] eqn:T.
      + destruct (i_some s1 _ I1 w T) as [C1 [C2 C3]].
        assert (Hh : has s = true).
        { apply (i_has s1 _ I1). unfold total. intros Q. apply app_eq_nil in Q as [_ Q]. exact (C1 Q). }
        destruct (stop || need_flush tableSize tsize w).
        * (* flush + snapshot *)
          cbn [o_flush o_ok].
          set (m := flush_and_snapshot i w s1).
          assert (Fm : fin m = fin s1 ++ [cur s1]).
          { unfold fin, out_items, m. cbn [recs flush_and_snapshot]. rewrite !map_app. cbn [map o_items to_otable].
            unfold cur. rewrite T. reflexivity. }
          assert (Tm : total m = total s1).
          { unfold total at 1. rewrite Fm, concat_snoc. unfold cur at 1. cbn [tw m flush_and_snapshot]. rewrite app_nil_r. reflexivity. }
          eexists. split; [reflexivity|].
          assert (Lall : forall x, In x (total s1) -> lt (e_uk x) (e_uk e)).
          { intros x Hx. apply (OrderProofs.le_lt_trans c ok _ (ukey s)); [apply (i_le s1 _ I1 Hh x Hx)|apply Lt1; exact Hh]. }
          split; [|repeat split; try reflexivity; [symmetry; exact Els|exact Tm]].
          constructor.
          -- change (cuts_ok c (fin m) = true). rewrite Fm. apply cuts_ok_snoc; [apply (i_cuts s1 _ I1)|exact C1|exact C3].
          -- intros _ x Hx. change (In x (total m)) in Hx. rewrite Tm in Hx. apply (OrderProofs.lt_le c). apply Lall. exact Hx.
          -- intros _. reflexivity.
          -- intros _ x Hx. change (In x (concat (fin m))) in Hx. apply Lall. unfold total.
             rewrite Fm, concat_snoc in Hx. exact Hx.
          -- intros w' Hw'. discriminate.
          -- intros _ b Hb. apply Hnext. exact Hb.
          -- intros b Hb. apply (i_ptrs s1 _ I1 b Hb).
          -- destruct (i_good s1 _ I1) as [G1 G2]. split.
             ++ change (Forall (fun o => goods (o_items o)) (recs s1 ++ [to_otable w])). apply Forall_app. split; [exact G1|].
                constructor; [apply (G2 w T)|constructor].
             ++ intros w' Hw'. discriminate.
        * eexists. split; [reflexivity|].
          split; [apply (inv2_new_key s1 _ _ _ I1 Lt1 Hnext)|repeat split; try reflexivity; symmetry; exact Els].
      + eexists. split; [reflexivity|].
        split; [apply (inv2_new_key s1 _ _ _ I1 Lt1 Hnext)|repeat split; try reflexivity; symmetry; exact Els].
    - (* same user key as the previous entry *)
      unfold first_occ in F. cbn [has ukey set_cs s1] in F. apply Bool.orb_false_iff in F as [F1 F2].
      apply Bool.negb_false_iff in F1.
      assert (Eu : ukey s = e_uk e).
      { apply (cmp_eq c ok). destruct (cmp c (ukey s) (e_uk e)); [reflexivity|discriminate|discriminate]. }
      exists s1. split; [reflexivity|]. split; [exact I1|]. repeat split; try reflexivity; try assumption.
      unfold last_seq, lastof. rewrite F1, Eu, (OrderProofs.cmp_refl c ok). reflexivity.
  Qed.

  Lemma total_append s e : total (set_tw s (Some (tw_append (tw s) (IGood e)))) = total s ++ [e].
  Proof.
    unfold total, cur, fin. cbn [tw set_tw out_items recs]. destruct (tw s) as [w|]; cbn [tw_append w_items].
    - rewrite good_entries_app. rewrite app_assoc. reflexivity.
    - rewrite app_nil_r. reflexivity.
  Qed.

  (* the drop decision of Compact.drop_run, as a boolean *)
  Definition dropped (ls : N) (e : entry) : bool :=
    ((ls <=? minSeq) || ((e_kind e =? keyTypeDel p) && (e_seq e <=? minSeq) && is_base c deeper (e_uk e)))%N.

  Lemma drop_run_cons last e l :
    K last (e :: l) = if dropped (last_seq c p last e) e then K (Some (e_uk e, e_seq e)) l
                      else e :: K (Some (e_uk e, e_seq e)) l.
  Proof.
    cbn [drop_run]. unfold dropped. destruct (last_seq c p last e <=? minSeq)%N; [reflexivity|]. cbn [orb].
    destruct ((e_kind e =? keyTypeDel p) && (e_seq e <=? minSeq) && is_base c deeper (e_uk e))%N; reflexivity.
  Qed.

  (* phase B: the drop rule and appendKV *)
  Lemma phaseB_inv i e l' s3 : inv2 s3 (e :: l') -> uk_sorted (e :: l') -> has s3 = true -> ukey s3 = e_uk e ->
    exists s', phaseB o_ok i e s3 = SCont s' /\ inv2 s' l' /\ lastof s' = Some (e_uk e, e_seq e) /\ kerr s' = kerr s3 /\
      if dropped (lseq s3) e then total s' = total s3 /\ drop s' = (drop s3 + 1)%N
      else total s' = total s3 ++ [e] /\ drop s' = drop s3.
  Proof.
    intros I [Hsort _] Hh Eu.
    assert (Ptr' : forall ptrs, cs_ptrs (cs s3) = ptrs \/ ptrs_ok c (e_uk e) deeper ptrs ->
                   forall b, In b l' -> ptrs_ok c (e_uk b) deeper ptrs).
    { intros ptrs [<-|P] b Hb; [apply (i_ptrs s3 _ I); right; exact Hb|].
      apply (ptrs_ok_mono c ok (e_uk e)); [apply Hsort; exact Hb|exact P]. }
    assert (Dropped : forall ptrs, cs_ptrs (cs s3) = ptrs \/ ptrs_ok c (e_uk e) deeper ptrs ->
              inv2 (drop_entry (set_ptrs s3 ptrs) (e_seq e)) l').
    { intros ptrs HP. constructor.
      - apply (i_cuts s3 _ I).
      - intros _ x Hx. apply (i_le s3 _ I Hh x Hx).
      - intros _. exact Hh.
      - intros T x Hx. apply (i_none s3 _ I T x Hx).
      - intros w Hw. apply (i_some s3 _ I w Hw).
      - intros _ b Hb. change (le (ukey s3) (e_uk b)). rewrite Eu. apply Hsort. exact Hb.
      - intros b Hb. apply (Ptr' ptrs HP b Hb).
      - apply (i_good s3 _ I). }
    assert (Kept : forall ptrs, cs_ptrs (cs s3) = ptrs \/ ptrs_ok c (e_uk e) deeper ptrs ->
              forall s4, s4 = set_seq (set_ptrs s3 ptrs) (e_seq e) ->
              inv2 (set_tw s4 (Some (tw_append (tw s4) (IGood e)))) l').
    { intros ptrs HP s4 ->. set (s4 := set_seq (set_ptrs s3 ptrs) (e_seq e)).
      assert (Tot : total (set_tw s4 (Some (tw_append (tw s4) (IGood e)))) = total s3 ++ [e]) by (rewrite total_append; reflexivity).
      constructor.
      - apply (i_cuts s3 _ I).
      - intros _ x Hx. rewrite Tot in Hx. change (le (e_uk x) (ukey s3)). apply in_app_or in Hx as [Hx|[<-|[]]].
        + apply (i_le s3 _ I Hh x Hx).
        + rewrite Eu. apply (OrderProofs.le_refl c ok).
      - intros _. exact Hh.
      - intros T. discriminate.
      - intros w Hw. cbn [tw set_tw] in Hw. injection Hw as <-.
        assert (Cur : cur (set_tw s4 (Some (tw_append (tw s4) (IGood e)))) = cur s3 ++ [e]).
        { unfold cur. cbn [tw set_tw]. change (tw s4) with (tw s3). destruct (tw s3) as [w0|]; cbn [tw_append w_items].
          - apply good_entries_app.
          - reflexivity. }
        rewrite Cur. split; [destruct (cur s3); discriminate|]. split.
        + change (tw s4) with (tw s3). destruct (tw s3) as [w0|] eqn:T3; unfold tw_empty; cbn [tw_append w_first].
          * destruct (i_some s3 _ I w0 T3) as [_ [Q _]]. unfold tw_empty in Q. destruct (w_first w0); [reflexivity|discriminate].
          * reflexivity.
        + intros x y Hx Hy. change (In x (concat (fin s3))) in Hx. apply in_app_or in Hy as [Hy|[<-|[]]].
          * destruct (tw s3) as [w0|] eqn:T3; [|unfold cur in Hy; rewrite T3 in Hy; destruct Hy].
            destruct (i_some s3 _ I w0 T3) as [_ [_ Q]]. apply Q; assumption.
          * destruct (tw s3) as [w0|] eqn:T3.
            -- destruct (i_some s3 _ I w0 T3) as [Q1 [_ Q3]]. destruct (cur s3) as [|y0 cr] eqn:Ec; [congruence|].
               apply (OrderProofs.lt_le_trans c ok _ (e_uk y0)); [apply Q3; [exact Hx|left; reflexivity]|].
               rewrite <- Eu. apply (i_le s3 _ I Hh). unfold total. apply in_or_app. right. rewrite Ec. left. reflexivity.
            -- rewrite <- Eu. apply (i_none s3 _ I T3 x Hx).
      - intros _ b Hb. change (le (ukey s3) (e_uk b)). rewrite Eu. apply Hsort. exact Hb.
      - intros b Hb. apply (Ptr' ptrs HP b Hb).
      - destruct (i_good s3 _ I) as [G1 G2]. split; [exact G1|]. intros w Hw. cbn [tw set_tw] in Hw. injection Hw as <-.
        change (tw s4) with (tw s3). destruct (tw s3) as [w0|] eqn:T3; cbn [tw_append w_items].
        + apply Forall_app. split; [apply (G2 w0 eq_refl)|constructor; [reflexivity|constructor]].
        + constructor; [reflexivity|constructor]. }
    assert (Same : set_ptrs s3 (cs_ptrs (cs s3)) = s3) by (destruct s3 as [? ? ? ? ? [? ? ? ?] ? ? ?]; reflexivity).
    unfold BuilderProofs.phaseB, dropped.
    destruct (lseq s3 <=? minSeq)%N eqn:E1.
    { cbn [orb]. eexists. split; [reflexivity|]. split.
      - rewrite <- Same. apply Dropped. left. reflexivity.
      - unfold lastof. cbn. rewrite Hh, Eu. repeat split; reflexivity. }
    cbn [orb]. destruct ((e_kind e =? keyTypeDel p) && (e_seq e <=? minSeq))%N eqn:E2.
    - assert (P0 : ptrs_ok c (e_uk e) deeper (cs_ptrs (cs s3))) by (apply (i_ptrs s3 _ I); left; reflexivity).
      destruct (base_levels_spec c ok p (e_uk e) deeper (cs_ptrs (cs s3)) Dok P0) as [B1 B2].
      rewrite Eu. destruct (base_levels c deeper (cs_ptrs (cs s3)) (e_uk e)) as [b ptrs'] eqn:EB. cbn [fst snd] in B1, B2.
      rewrite <- B1. cbn [andb]. destruct b.
      + eexists. split; [reflexivity|]. split; [apply Dropped; right; exact B2|].
        unfold lastof. cbn. rewrite Hh, Eu. repeat split; reflexivity.
      + rewrite append_kv_ok. eexists. split; [reflexivity|]. split; [apply (Kept ptrs'); [right; exact B2|reflexivity]|].
        split; [unfold lastof; cbn; rewrite Hh, Eu; reflexivity|]. split; [reflexivity|].
        split; [|reflexivity]. rewrite total_append. reflexivity.
    - cbn [andb]. rewrite append_kv_ok. eexists. split; [reflexivity|]. split.
      + apply (Kept (cs_ptrs (cs s3))); [left; reflexivity|]. rewrite Same. reflexivity.
      + split; [unfold lastof; cbn; rewrite Hh, Eu; reflexivity|]. split; [reflexivity|].
        split; [|reflexivity]. rewrite total_append. reflexivity.
  Qed.

  Lemma loop_good : forall l i s, uk_sorted l -> inv2 s l ->
    exists sf, run_loop o_ok 0 i false (map IGood l) s = (sf, ROk) /\
      tw sf = None /\ cuts_ok c (fin sf) = true /\ all_good sf /\
      concat (fin sf) = total s ++ K (lastof s) l /\ kerr sf = kerr s /\
      (drop sf + N.of_nat (length (K (lastof s) l)) = drop s + N.of_nat (length l))%N.
  Proof.
    induction l as [|e l IH]; intros i s Hs I.
    - cbn [map Builder.run_loop o_next o_ok o_flush drop_run length]. destruct (tw s) as [w|] eqn:T.
      + destruct (i_some s _ I w T) as [C1 [C2 C3]]. rewrite C2.
        eexists. split; [reflexivity|]. split; [reflexivity|].
        assert (Ff : fin {| has := has s; ukey := ukey s; lseq := lseq s; kerr := kerr s; drop := drop s; cs := cs s;
                            tw := None; recs := recs s ++ [to_otable w]; snap := snap s |} = fin s ++ [cur s]).
        { unfold fin, out_items. cbn [recs]. rewrite !map_app. cbn [map o_items to_otable]. unfold cur. rewrite T. reflexivity. }
        rewrite Ff. split; [apply cuts_ok_snoc; [apply (i_cuts s _ I)|exact C1|exact C3]|]. split.
        * destruct (i_good s _ I) as [G1 G2]. split; [|intros w' Hw'; discriminate].
          cbn [recs]. apply Forall_app. split; [exact G1|constructor; [apply (G2 w T)|constructor]].
        * rewrite concat_snoc, app_nil_r. unfold total. split; [reflexivity|]. split; [reflexivity|cbn [kerr drop]; lia].
      + exists s. split; [reflexivity|]. split; [exact T|]. split; [apply (i_cuts s _ I)|]. split; [apply (i_good s _ I)|].
        unfold total, cur. rewrite T, !app_nil_r. split; [reflexivity|]. split; [reflexivity|lia].
    - cbn [map Builder.run_loop o_next o_ok]. cbn [Nat.ltb Nat.leb]. cbn [Builder.step].
      rewrite (step_good_split c p sz gp maxgp deeper minSeq tableSize tsize).
      destruct (phaseA_inv i e l s I Hs) as [s3 [EA [I3 [Hh [Eu [Els [Et [Ek Ed]]]]]]]].
      rewrite EA. destruct (phaseB_inv i e l s3 I3 Hs Hh Eu) as [s' [EB [I' [El' [Ek' Hd]]]]].
      rewrite EB. destruct Hs as [_ Hs'].
      destruct (IH (S i) s' Hs' I') as [sf [R [T [Cu [G [Cc [Kk Dd]]]]]]].
      exists sf. split; [exact R|]. split; [exact T|]. split; [exact Cu|]. split; [exact G|].
      rewrite (drop_run_cons (lastof s) e l). rewrite <- Els. rewrite El' in Cc, Dd.
      destruct (dropped (lseq s3) e).
      + destruct Hd as [Ht Hdr]. rewrite Ht, Et in Cc. split; [exact Cc|]. split; [congruence|].
        rewrite Hdr, Ed in Dd. cbn [length]. lia.
      + destruct Hd as [Ht Hdr]. rewrite Ht, Et in Cc. rewrite <- app_assoc in Cc. split; [exact Cc|]. split; [congruence|].
        rewrite Hdr, Ed in Dd. cbn [length]. lia.
  Qed.

  Lemma inv2_init l : inv2 bst0 l.
  Proof.
    constructor.
    - reflexivity.
    - intros H. discriminate.
    - intros H. exfalso. apply H. reflexivity.
    - intros _ x [].
    - intros w H. discriminate.
    - intros H. discriminate.
    - intros e _. apply ptrs_ok_init.
    - split; [constructor|intros w H; discriminate].
  Qed.

  Theorem builder_good es : uk_sorted es ->
    exists sf, run_attempt o_ok (map IGood es) bst0 = (sf, ROk) /\
      out_items sf = map (map IGood) (fin sf) /\
      cuts_ok c (fin sf) = true /\
      concat (fin sf) = K None es /\
      kerr sf = 0%N /\ (drop sf + N.of_nat (length (K None es)) = N.of_nat (length es))%N.
  Proof.
    intros Hs. destruct (loop_good es 0 bst0 Hs (inv2_init es)) as [sf [R [T [Cu [G [Cc [Kk Dd]]]]]]].
    exists sf. unfold Builder.run_attempt.
    change (restore bst0) with bst0. change (sn_iter (snap bst0)) with 0. change (Nat.ltb 0 0) with false.
    rewrite R. unfold cleanup. cbn [fst snd]. rewrite T. split; [reflexivity|]. split.
    - destruct G as [G1 _]. unfold fin, out_items. clear -G1.
      induction G1 as [|o r Ho _ IH]; [reflexivity|]. cbn [map]. f_equal; [symmetry; apply goods_map; exact Ho|exact IH].
    - split; [exact Cu|]. split; [exact Cc|]. split; [exact Kk|exact Dd].
  Qed.

  (* what compactionTransact ends with after any history of transient failures *)
  Theorem transact_good es os s' : uk_sorted es -> transact os (map IGood es) bst0 = (s', TDone) ->
      out_items s' = map (map IGood) (fin s') /\
      cuts_ok c (fin s') = true /\
      concat (fin s') = K None es /\
      kerr s' = 0%N /\ (drop s' + N.of_nat (length (K None es)) = N.of_nat (length es))%N.
  Proof.
    intros Hs H. destruct (builder_good es Hs) as [sf [R Q]].
    pose proof (retry_invariant c p sz gp maxgp deeper minSeq strict tableSize tsize (map IGood es) os s' H) as E.
    rewrite R in E. injection E as ->. exact Q.
  Qed.
End Cuts.
