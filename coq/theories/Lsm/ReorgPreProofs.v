(* Lsm/ReorgPreProofs.v — the reorganisations the DB performs are admissible (History.reorg_ok) for every comparer
   satisfying the PREORDER contract, under the class-based uniqueness conditions uniqE / uniq_inE. *)
From GL Require Import Base.OrderPre Lsm.LsmProofs Lsm.LsmPreProofs Lsm.History Lsm.ReorgProofs.

Section Proofs.
  Variable c : comparer.
  Hypothesis ok : comparer_pre_ok c.
  Variable p : kparams.
  Hypothesis pok : kparams_ok p.

  Notation newest := (newest c).
  Notation res := (History.res p).
  Notation kinds_ok := (kinds_ok p).

  (* no two distinct stored entries share user key (class) and sequence number *)
  Definition uniq_inE (l : list entry) : Prop :=
    forall a b, In a l -> In b l -> cmp c (e_uk a) (e_uk b) = Eq -> e_seq a = e_seq b -> a = b.

  Lemma uniq_inE_vis k s l : uniq_inE l -> uniq_vis c k s l.
  Proof. intros H a b Ha Hb Va Vb. apply (H a b Ha Hb). apply (same_class_of_vis c ok k s a b Va Vb). Qed.

  Theorem rearrangement_ok_pre h s' : uniq_inE (h_store h) -> same_elems (h_store h) s' -> reorg_ok c p h s'.
  Proof. intros Hu. apply rearrangement_ok_vis. intros k s. apply uniq_inE_vis. exact Hu. Qed.

  Section Compaction.
    Variable minSeq : N.
    Variable base : bytes -> bool.
    Hypothesis minSeq_lt : minSeq < keyMaxSeq p.

    Variable I O : list entry.          (* entries of the input tables / everything else stored *)
    Hypothesis I_kinds : kinds_ok I.
    Hypothesis I_nodup : uniqE c I.
    Hypothesis S_uniq : uniq_inE (I ++ O).
    (* every other stored entry of a user key (class) that occurs in the inputs is either newer than all input
       entries of that key, or older — and then the key is not at base level *)
    Hypothesis others : forall o i, In o O -> In i I -> cmp c (e_uk o) (e_uk i) = Eq ->
      e_seq i < e_seq o \/ (e_seq o < e_seq i /\ base (e_uk i) = false).

    Let K := drop_run c p minSeq base None (isort c I).

    Theorem compaction_preserves_pre k s : minSeq <= s ->
      res (newest k s (K ++ O) None) = res (newest k s (I ++ O) None).
    Proof.
      apply (compaction_keeps_reads c ok p pok minSeq base minSeq_lt I O I_kinds
               (pisort_sorted c ok p pok I I_kinds I_nodup) (fun k s => uniq_inE_vis k s _ S_uniq) others).
    Qed.

    Theorem compaction_reorg_ok_pre h s' :
      same_elems (h_store h) (I ++ O) -> same_elems s' (K ++ O) ->
      (forall q, protected h q -> minSeq <= q) ->
      reorg_ok c p h s'.
    Proof.
      apply (compaction_admissible c ok p pok minSeq base minSeq_lt I O I_kinds
               (pisort_sorted c ok p pok I I_kinds I_nodup) (fun k s => uniq_inE_vis k s _ S_uniq) others).
    Qed.
  End Compaction.
End Proofs.
