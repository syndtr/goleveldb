(* Lsm/BuilderProofs.v — the retry invariant of tableCompactionBuilder (model Lsm/Builder.v): whatever transient failures
   hit the attempts of compactionTransact (any steps, any positions, any number of attempts), the attempt that succeeds
   ends in exactly the state a single failure-free run ends in: same finished tables (entries, recorded first/last), same
   dropCnt / kerrCnt.  Proof idea: a state reached right after "flush + snapshot" at entry i is a fixed point of [restore],
   and processing entry i from it with [resumed] set is what the original iteration did after the snapshot; every failing
   attempt therefore leaves a persistent state (snapshot, finished tables) from which the failure-free rerun computes the
   failure-free result. *)
From GL Require Import Lsm.Builder.
From Coq Require Import Arith Lia.

Local Open Scope nat_scope.

Section Retry.
  Variable c : comparer.
  Variable p : kparams.
  Variable sz : table -> N.
  Variable gp : list table.
  Variable maxgp : N.
  Variable deeper : list (list table).
  Variable minSeq : N.
  Variable strict : bool.
  Variable tableSize : N.
  Variable tsize : list item -> N.
  Variable items : list item.

  Notation run_loop := (run_loop c p sz gp maxgp deeper minSeq strict tableSize tsize).
  Notation step := (step c p sz gp maxgp deeper minSeq strict tableSize tsize).
  Notation step_good := (step_good c p sz gp maxgp deeper minSeq tableSize tsize).
  Notation step_bad := (step_bad p strict).
  Notation run_attempt := (run_attempt c p sz gp maxgp deeper minSeq strict tableSize tsize).
  Notation transact := (transact c p sz gp maxgp deeper minSeq strict tableSize tsize).
  Notation should_stop := (should_stop c sz gp maxgp).
  Notation need_flush := (need_flush tableSize tsize).
  Notation bst0 := (bst0 deeper).

  (* the persistent part of the builder: what a later attempt starts from *)
  Definition pers (s : bst) : snapshot * list otable := (snap s, recs s).

  Lemma restore_det s s' : pers s = pers s' -> tw s = tw s' -> restore s = restore s'.
  Proof. unfold pers, restore. intros E T. injection E as E1 E2. rewrite E1, E2, T. reflexivity. Qed.

  Lemma set_tw_none s : tw s = None -> set_tw s None = s.
  Proof. destruct s. cbn. intros ->. reflexivity. Qed.

  Lemma set_cs_same s : set_cs s (cs s) = s.
  Proof. destruct s. reflexivity. Qed.

  (* the two halves of an iteration for a good entry *)
  Definition phaseA (o : oracle) (rp : bool) (i : nat) (e : entry) (s : bst) : sres :=
    let '(stop, cs1) := if rp then (false, cs s) else should_stop (cs s) (e_ikey e) in
    let s1 := set_cs s cs1 in
    if first_occ c s1 (e_uk e) then
      match (match tw s1 with
             | Some w => if stop || need_flush w
                         then if o_flush o i then SFail s1 RErr else SCont (flush_and_snapshot i w s1)
                         else SCont s1
             | None => SCont s1
             end) with
      | SCont s2 => SCont (set_last s2 true (e_uk e) (keyMaxSeq p))
      | f => f
      end
    else SCont s1.

  Definition phaseB (o : oracle) (i : nat) (e : entry) (s3 : bst) : sres :=
    if (lseq s3 <=? minSeq)%N then SCont (drop_entry s3 (e_seq e))
    else if ((e_kind e =? keyTypeDel p) && (e_seq e <=? minSeq))%N then
           let '(b, ptrs') := base_levels c deeper (cs_ptrs (cs s3)) (ukey s3) in
           let s4 := set_ptrs s3 ptrs' in
           if b then SCont (drop_entry s4 (e_seq e))
           else append_kv o i (IGood e) (set_seq s4 (e_seq e))
         else append_kv o i (IGood e) (set_seq s3 (e_seq e)).

  Lemma step_good_split o rp i e s :
    step_good o rp i e s = match phaseA o rp i e s with SCont s3 => phaseB o i e s3 | f => f end.
  Proof.
    unfold Builder.step_good, phaseA, phaseB.
    destruct (if rp then (false, cs s) else should_stop (cs s) (e_ikey e)) as [stop cs1].
    destruct (first_occ c (set_cs s cs1) (e_uk e)); [|reflexivity].
    destruct (tw (set_cs s cs1)) as [w|]; [|reflexivity].
    destruct (stop || need_flush w); [|reflexivity].
    destruct (o_flush o i); reflexivity.
  Qed.

  Definition snapped (s : bst) (i : nat) (m : bst) : Prop :=
    tw s <> None /\ tw m = None /\ restore m = m /\ sn_iter (snap m) = i.

  Lemma phaseA_resume i e m : tw m = None -> first_occ c m (e_uk e) = true ->
    phaseA o_ok true i e m = SCont (set_last m true (e_uk e) (keyMaxSeq p)).
  Proof. intros T F. unfold phaseA. cbv beta iota zeta. rewrite set_cs_same, F, T. reflexivity. Qed.

  Lemma phaseA_cases o rp i e s :
    (exists s1, phaseA o rp i e s = SFail s1 RErr /\ pers s1 = pers s) \/
    (exists s3, phaseA o rp i e s = SCont s3 /\ phaseA o_ok rp i e s = SCont s3 /\
       (pers s3 = pers s \/
        exists m, snapped s i m /\ pers s3 = pers m /\ phaseA o_ok true i e m = SCont s3)).
  Proof.
    unfold phaseA.
    destruct (if rp then (false, cs s) else should_stop (cs s) (e_ikey e)) as [stop cs1].
    destruct (first_occ c (set_cs s cs1) (e_uk e)) eqn:F.
    2:{ right. eexists. split; [reflexivity|]. split; [reflexivity|]. left. reflexivity. }
    destruct (tw (set_cs s cs1)) as [w|] eqn:T.
    2:{ right. eexists. split; [reflexivity|]. split; [reflexivity|]. left. reflexivity. }
    destruct (stop || need_flush w).
    2:{ right. eexists. split; [reflexivity|]. split; [reflexivity|]. left. reflexivity. }
    destruct (o_flush o i).
    { left. eexists. split; [reflexivity|]. reflexivity. }
    right. eexists. split; [reflexivity|]. cbn [o_flush o_ok]. split; [reflexivity|]. right.
    exists (flush_and_snapshot i w (set_cs s cs1)). split.
    { split; [cbn [tw set_cs] in T; rewrite T; discriminate|]. split; [reflexivity|]. split; reflexivity. }
    split; [reflexivity|].
    exact (phaseA_resume i e (flush_and_snapshot i w (set_cs s cs1)) eq_refl F).
  Qed.

  Lemma append_kv_ok i it s : append_kv o_ok i it s = SCont (set_tw s (Some (tw_append (tw s) it))).
  Proof. unfold append_kv. cbn [o_append o_ok]. destruct (tw s); reflexivity. Qed.

  Lemma append_cases o i it s :
    (exists s', append_kv o i it s = SFail s' RErr /\ pers s' = pers s) \/
    (exists s', append_kv o i it s = SCont s' /\ append_kv o_ok i it s = SCont s' /\ pers s' = pers s).
  Proof.
    unfold append_kv. cbn [o_append o_ok].
    destruct (tw s) as [w|] eqn:T; destruct (o_append o i);
      try (right; eexists; split; [reflexivity|split; reflexivity]);
      left; eexists; split; reflexivity.
  Qed.

  Lemma phaseB_cases o i e s3 :
    (exists s', phaseB o i e s3 = SFail s' RErr /\ pers s' = pers s3) \/
    (exists s', phaseB o i e s3 = SCont s' /\ phaseB o_ok i e s3 = SCont s' /\ pers s' = pers s3).
  Proof.
    unfold phaseB. destruct (lseq s3 <=? minSeq)%N.
    { right. eexists. split; [reflexivity|split; reflexivity]. }
    destruct ((e_kind e =? keyTypeDel p) && (e_seq e <=? minSeq))%N.
    - destruct (base_levels c deeper (cs_ptrs (cs s3)) (ukey s3)) as [b ptrs'].
      destruct b.
      + right. eexists. split; [reflexivity|split; reflexivity].
      + destruct (append_cases o i (IGood e) (set_seq (set_ptrs s3 ptrs') (e_seq e))) as [[s' [E P]]|[s' [E [E' P]]]].
        * left. exists s'. split; [exact E|exact P].
        * right. exists s'. split; [exact E|]. split; [exact E'|exact P].
    - destruct (append_cases o i (IGood e) (set_seq s3 (e_seq e))) as [[s' [E P]]|[s' [E [E' P]]]].
      + left. exists s'. split; [exact E|exact P].
      + right. exists s'. split; [exact E|]. split; [exact E'|exact P].
  Qed.

  Lemma step_cases o rp i it s :
    match step o rp i it s with
    | SCont s' => step o_ok rp i it s = SCont s' /\
                  (pers s' = pers s \/
                   exists m, snapped s i m /\ pers s' = pers m /\ step o_ok true i it m = SCont s')
    | SFail s' RErr => pers s' = pers s \/
                       exists m, snapped s i m /\ pers s' = pers m /\ step o_ok rp i it s = step o_ok true i it m
    | SFail s' RCorrupt => step o_ok rp i it s = SFail s' RCorrupt /\ pers s' = pers s
    | SFail s' ROk => False
    end.
  Proof.
    destruct it as [e|bk bv].
    - cbn [Builder.step]. rewrite !step_good_split.
      destruct (phaseA_cases o rp i e s) as [[s1 [E P]]|[s3 [E [E' D]]]].
      + rewrite E. left. exact P.
      + rewrite E, E'.
        destruct (phaseB_cases o i e s3) as [[s' [B P]]|[s' [B [B' P]]]].
        * rewrite B. destruct D as [D|[m [Sn [Pm Am]]]].
          -- left. rewrite P. exact D.
          -- right. exists m. split; [exact Sn|]. split; [rewrite P; exact Pm|].
             rewrite step_good_split, Am. reflexivity.
        * rewrite B. split; [exact B'|]. destruct D as [D|[m [Sn [Pm Am]]]].
          -- left. rewrite P. exact D.
          -- right. exists m. split; [exact Sn|]. split; [rewrite P; exact Pm|].
             rewrite step_good_split, Am. exact B'.
    - cbn [Builder.step]. unfold Builder.step_bad. destruct strict.
      + split; reflexivity.
      + destruct (append_cases o i (IBad bk bv) (set_kerr (set_last s false [] (keyMaxSeq p)) (kerr s + 1)))
          as [[s' [E P]]|[s' [E [E' P]]]].
        * rewrite E. left. exact P.
        * rewrite E. split; [exact E'|]. left. exact P.
  Qed.

  Lemma run_loop_k o k k' : forall l i rp s, k <= i -> k' <= i -> run_loop o k i rp l s = run_loop o k' i rp l s.
  Proof.
    induction l as [|it l IH]; intros i rp s H H'; cbn [Builder.run_loop].
    - reflexivity.
    - destruct (o_next o i); [reflexivity|].
      assert (E : Nat.ltb i k = false) by (apply Nat.ltb_ge; exact H).
      assert (E' : Nat.ltb i k' = false) by (apply Nat.ltb_ge; exact H').
      rewrite E, E'. destruct (step o rp i it s) as [s'|s' r]; [|reflexivity].
      apply IH; lia.
  Qed.

  Lemma skip_ok k rp s : forall pre l i, i + length pre <= k ->
    run_loop o_ok k i rp (pre ++ l) s = run_loop o_ok k (i + length pre) rp l s.
  Proof.
    induction pre as [|x pre IH]; intros l i H; cbn [app length].
    - rewrite Nat.add_0_r. reflexivity.
    - cbn [length] in H. cbn [Builder.run_loop o_next o_ok].
      assert (E : Nat.ltb i k = true) by (apply Nat.ltb_lt; lia). rewrite E.
      rewrite IH by lia. f_equal. lia.
  Qed.

  Lemma skip_or_fail o k rp s : forall pre l i, i + length pre <= k ->
    run_loop o k i rp (pre ++ l) s = (s, RErr) \/
    run_loop o k i rp (pre ++ l) s = run_loop o k (i + length pre) rp l s.
  Proof.
    induction pre as [|x pre IH]; intros l i H; cbn [app length].
    - right. rewrite Nat.add_0_r. reflexivity.
    - cbn [length] in H. cbn [Builder.run_loop]. destruct (o_next o i); [left; reflexivity|].
      assert (E : Nat.ltb i k = true) by (apply Nat.ltb_lt; lia). rewrite E.
      destruct (IH l (S i) ltac:(lia)) as [F|F]; [left; exact F|right].
      rewrite F. f_equal. lia.
  Qed.

  (* the failure-free rerun from the persistent part of a state *)
  Definition redo (sA : bst) : bst * rres :=
    let r := restore (set_tw sA None) in
    run_loop o_ok (sn_iter (snap r)) 0 (Nat.ltb 0 (sn_iter (snap r))) items r.

  Lemma redo_pers sA sB : pers sA = pers sB -> redo sA = redo sB.
  Proof.
    intros E. unfold redo.
    assert (R : restore (set_tw sA None) = restore (set_tw sB None)) by (apply restore_det; [exact E|reflexivity]).
    rewrite R. reflexivity.
  Qed.

  Lemma redo_snapped s i m pre it l k :
    items = pre ++ it :: l -> length pre = i -> snapped s i m -> 0 < i -> k <= i ->
    redo m = match step o_ok true i it m with
             | SCont s' => run_loop o_ok k (S i) false l s'
             | SFail s' r => (s', r)
             end.
  Proof.
    intros Ei Hl [_ [T [R Si]]] Hpos Hk.
    unfold redo. rewrite (set_tw_none m T), R, Si.
    assert (E0 : Nat.ltb 0 i = true) by (apply Nat.ltb_lt; exact Hpos). rewrite E0.
    rewrite Ei. rewrite (skip_ok i true m pre (it :: l) 0) by lia. cbn [plus]. rewrite Hl.
    cbn [Builder.run_loop o_next o_ok]. rewrite Nat.ltb_irrefl.
    destruct (step o_ok true i it m) as [s'|s' r]; [|reflexivity].
    apply run_loop_k; lia.
  Qed.

  Lemma sim o k : forall l pre i rp s, items = pre ++ l -> length pre = i -> k <= i -> (tw s <> None -> 0 < i) ->
    let A := run_loop o k i rp l s in
    let B := run_loop o_ok k i rp l s in
    (snd A <> RErr -> A = B) /\
    ((snd A = RErr \/ tw (fst A) <> None) ->
       pers (fst A) = pers s \/ (redo (fst A) = B /\ sn_iter (snap (fst A)) < length items)).
  Proof.
    induction l as [|it l IH]; intros pre i rp s Ei Hl Hk Hw; cbn zeta.
    - cbn [Builder.run_loop o_next o_ok o_flush]. destruct (o_next o i).
      { cbn [fst snd]. split; [intros H; exfalso; apply H; reflexivity|]. intros _. left. reflexivity. }
      destruct (tw s) as [w|] eqn:T.
      + destruct (tw_empty w).
        * cbn [fst snd]. split; [reflexivity|]. intros _. left. reflexivity.
        * destruct (o_flush o i); cbn [fst snd].
          -- split; [intros H; exfalso; apply H; reflexivity|]. intros _. left. reflexivity.
          -- split; [reflexivity|]. intros [H|H]; [discriminate|]. cbn [tw] in H. exfalso. apply H. reflexivity.
      + cbn [fst snd]. split; [reflexivity|]. intros [H|H]; [discriminate|]. exfalso. apply H. exact T.
    - cbn [Builder.run_loop o_next o_ok]. destruct (o_next o i).
      { cbn [fst snd]. split; [intros H; exfalso; apply H; reflexivity|]. intros _. left. reflexivity. }
      assert (E : Nat.ltb i k = false) by (apply Nat.ltb_ge; exact Hk). rewrite E.
      assert (Hlt : i < length items) by (rewrite Ei, app_length; cbn [length]; lia).
      pose proof (step_cases o rp i it s) as SC.
      destruct (step o rp i it s) as [s'|s' r].
      + destruct SC as [Eok D]. rewrite Eok.
        assert (Ei' : items = (pre ++ [it]) ++ l) by (rewrite <- app_assoc; exact Ei).
        assert (Hl' : length (pre ++ [it]) = S i) by (rewrite app_length; cbn [length]; lia).
        destruct (IH (pre ++ [it]) (S i) false s' Ei' Hl' ltac:(lia) ltac:(intros _; lia)) as [I1 I2].
        split; [exact I1|]. intros H. destruct (I2 H) as [P|[Rd Lt]].
        * destruct D as [D|[m [Sn [Pm St]]]].
          -- left. rewrite P. exact D.
          -- right. assert (Hpos : 0 < i) by (apply Hw; destruct Sn as [Sn _]; exact Sn).
             split.
             ++ rewrite (redo_pers _ m) by (rewrite P; exact Pm).
                pose proof (redo_snapped s i m pre it l k Ei Hl Sn Hpos Hk) as Rm. rewrite Rm, St. reflexivity.
             ++ assert (Es : snap (fst (run_loop o k (S i) false l s')) = snap m).
                { assert (Q : pers (fst (run_loop o k (S i) false l s')) = pers m) by (rewrite P; exact Pm).
                  unfold pers in Q. injection Q as Q1 _. exact Q1. }
                rewrite Es. destruct Sn as [_ [_ [_ Si]]]. rewrite Si. exact Hlt.
        * right. split; [exact Rd|exact Lt].
      + destruct r.
        * destruct SC.
        * cbn [fst snd]. split; [intros H; exfalso; apply H; reflexivity|]. intros _.
          destruct SC as [P|[m [Sn [Pm St]]]]; [left; exact P|right].
          assert (Hpos : 0 < i) by (apply Hw; destruct Sn as [Sn _]; exact Sn).
          split.
          -- rewrite (redo_pers _ m Pm).
             pose proof (redo_snapped s i m pre it l k Ei Hl Sn Hpos Hk) as Rm. rewrite Rm, St. reflexivity.
          -- assert (Es : snap s' = snap m) by (unfold pers in Pm; injection Pm as Q1 _; exact Q1).
             rewrite Es. destruct Sn as [_ [_ [_ Si]]]. rewrite Si. exact Hlt.
        * destruct SC as [Eok P]. rewrite Eok. cbn [fst snd]. split; [reflexivity|]. intros _. left. exact P.
  Qed.

  Definition ff_result : bst * rres := run_attempt o_ok items bst0.

  Definition inv (s : bst) : Prop :=
    tw s = None /\ sn_iter (snap s) <= length items /\ run_attempt o_ok items s = ff_result.

  Lemma inv0 : inv bst0.
  Proof. split; [reflexivity|]. split; [cbn; lia|reflexivity]. Qed.

  Lemma run_attempt_pers o s s' : pers s = pers s' -> tw s = tw s' -> run_attempt o items s = run_attempt o items s'.
  Proof. intros E T. unfold Builder.run_attempt. rewrite (restore_det s s' E T). reflexivity. Qed.

  Lemma attempt_sim o s : inv s ->
    match snd (run_attempt o items s) with
    | RErr => inv (fst (run_attempt o items s))
    | _ => run_attempt o items s = ff_result
    end.
  Proof.
    intros [T [Hk F]].
    set (k := sn_iter (snap s)) in *.
    assert (Ks : sn_iter (snap (restore s)) = k) by reflexivity.
    assert (T0 : tw (restore s) = None) by exact T.
    assert (P0 : pers (restore s) = pers s) by reflexivity.
    (* the failure-free attempt from s, with the skip unfolded *)
    assert (Split : items = firstn k items ++ skipn k items) by (symmetry; apply firstn_skipn).
    assert (Lf : length (firstn k items) = k) by (apply firstn_length_le; exact Hk).
    set (rp := Nat.ltb 0 k).
    set (B := run_loop o_ok k k rp (skipn k items) (restore s)).
    assert (FB : Builder.cleanup o_ok B = ff_result).
    { rewrite <- F. unfold Builder.run_attempt. rewrite Ks. fold rp. rewrite Split at 1.
      rewrite (skip_ok k rp (restore s) (firstn k items) (skipn k items) 0) by lia.
      cbn [plus]. rewrite Lf. reflexivity. }
    assert (EA : run_attempt o items s = Builder.cleanup o (run_loop o k 0 rp items (restore s))) by reflexivity.
    rewrite EA. clear EA.
    assert (Hsk := skip_or_fail o k rp (restore s) (firstn k items) (skipn k items) 0 ltac:(lia)).
    rewrite <- Split in Hsk. cbn [plus] in Hsk. rewrite Lf in Hsk.
    destruct Hsk as [Hf|Hs].
    { (* the iterator failed while skipping *)
      rewrite Hf. unfold Builder.cleanup. cbn [fst snd]. rewrite T0. cbn [fst snd].
      split; [exact T0|]. split; [exact Hk|].
      rewrite (run_attempt_pers o_ok (restore s) s P0 eq_refl). exact F. }
    rewrite Hs.
    destruct (sim o k (skipn k items) (firstn k items) k rp (restore s) Split Lf (le_n k)
                ltac:(intros H; exfalso; apply H; exact T0)) as [S1 S2].
    fold B in S1, S2.
    set (A := run_loop o k k rp (skipn k items) (restore s)) in *.
    (* what a state with the persistent part of [x] and no writer gives *)
    assert (InvOf : forall x, (pers x = pers (restore s) \/ (redo x = B /\ sn_iter (snap x) < length items)) ->
                              inv (set_tw x None)).
    { intros x [Px|[Rx Lx]].
      - split; [reflexivity|]. split.
        + change (sn_iter (snap x) <= length items).
          assert (Q : snap x = snap s) by (rewrite P0 in Px; unfold pers in Px; injection Px as Q1 _; exact Q1).
          rewrite Q. exact Hk.
        + rewrite (run_attempt_pers o_ok (set_tw x None) s); [exact F| |rewrite T; reflexivity].
          rewrite <- P0, <- Px. reflexivity.
      - split; [reflexivity|]. split; [change (sn_iter (snap x) <= length items); lia|].
        unfold Builder.run_attempt. unfold redo in Rx. rewrite Rx. exact FB. }
    unfold Builder.cleanup.
    destruct (tw (fst A)) as [w|] eqn:TA.
    - cbn [fst snd]. destruct (o_cleanup o) eqn:Oc.
      + apply InvOf. apply S2. right. discriminate.
      + destruct (snd A) eqn:SA.
        * rewrite <- FB. rewrite <- S1 by discriminate.
          unfold Builder.cleanup. rewrite TA. cbn [o_cleanup o_ok]. rewrite SA. reflexivity.
        * apply InvOf. apply S2. left. reflexivity.
        * rewrite <- FB. rewrite <- S1 by discriminate.
          unfold Builder.cleanup. rewrite TA. cbn [o_cleanup o_ok]. rewrite SA. reflexivity.
    - destruct (snd A) eqn:SA.
      + rewrite <- FB. rewrite <- S1 by discriminate.
        unfold Builder.cleanup. rewrite TA. reflexivity.
      + rewrite <- (set_tw_none (fst A) TA). apply InvOf. apply S2. left. reflexivity.
      + rewrite <- FB. rewrite <- S1 by discriminate.
        unfold Builder.cleanup. rewrite TA. reflexivity.
  Qed.

  (* every attempt that does not end in a retried error ends exactly like the failure-free run — for every history of
     failed attempts before it *)
  Theorem transact_inv : forall os s s', inv s -> transact os items s = (s', TDone) -> ff_result = (s', ROk).
  Proof.
    induction os as [|o os IH]; intros s s' I H; cbn [Builder.transact] in H; [discriminate|].
    destruct (o_closed o); [discriminate|].
    pose proof (attempt_sim o s I) as AS.
    destruct (run_attempt o items s) as [s1 r] eqn:E. cbn [fst snd] in AS.
    destruct (o_closed_sel o); [discriminate|].
    destruct r.
    - injection H as <-. symmetry. exact AS.
    - destruct (o_perr o); [discriminate|]. apply (IH s1 s' AS H).
    - discriminate.
  Qed.

  Theorem retry_invariant os s' :
    transact os items bst0 = (s', TDone) -> run_attempt o_ok items bst0 = (s', ROk).
  Proof. intros H. apply (transact_inv os bst0 s' inv0 H). Qed.

  (* an exit caused by a corrupted key under StrictCompaction happens iff the failure-free run meets it too: the state it
     ends in is the failure-free one *)
  Theorem corrupt_exit_inv o s : inv s -> snd (run_attempt o items s) = RCorrupt -> run_attempt o items s = ff_result.
  Proof. intros I H. pose proof (attempt_sim o s I) as AS. rewrite H in AS. exact AS. Qed.
End Retry.
