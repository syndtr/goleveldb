(* Lsm/ExpandProofs.v — what newCompaction/expand (model Lsm/Pick.v) chooses on a well-formed version:
   it terminates without panic, the source inputs contain the seed and are tables of the source level, the next-level
   inputs are exactly the tables of the next level overlapping a range that covers every source input, and for source
   level 0 the source inputs are closed under "shares a user key with". *)
From GL Require Import Base.OrderProofs Lsm.LsmProofs Lsm.Pick Lsm.PickBase Lsm.OverlapProofs Lsm.WfLsm.
From GL Require Mem.ListLemmas.
From Coq Require Import Arith Lia.

Local Open Scope nat_scope.

Lemma nodup_firstn {A} k (l : list A) : NoDup l -> NoDup (firstn k l).
Proof. intros H. rewrite <- (firstn_skipn k l) in H. apply ListLemmas.NoDup_app_iff in H. apply H. Qed.

Lemma nodup_skipn {A} k (l : list A) : NoDup l -> NoDup (skipn k l).
Proof. intros H. rewrite <- (firstn_skipn k l) in H. apply ListLemmas.NoDup_app_iff in H. apply H. Qed.

Section Range.
  Variable c : comparer.
  Hypothesis ok : comparer_ok c.

  Notation lt := (Order.lt c).
  Notation le := (Order.le c).
  Notation umin_of := Pick.umin_of.
  Notation umax_of := Pick.umax_of.

  Lemma icmp_nlt_uk a b : icmp c a b <> Lt -> le (uk b) (uk a).
  Proof.
    intros H. apply (not_lt_le c ok). intros L. apply H. unfold icmp. unfold Order.lt in L. rewrite L. reflexivity.
  Qed.

  Lemma icmp_ngt_uk a b : icmp c a b <> Gt -> le (uk a) (uk b).
  Proof.
    intros H. unfold Order.le. intros G. apply H. unfold icmp. rewrite G. reflexivity.
  Qed.

  (* [r] covers the tables [tf]: every bound lies inside *)
  Definition covers (r : ikey * ikey) (tf : list table) : Prop :=
    forall t, In t tf -> le (uk (fst r)) (umin_of t) /\ le (umax_of t) (uk (snd r)).

  Lemma get_range_from_spec tf : forall imin imax,
    let r := get_range_from c imin imax tf in
    le (uk (fst r)) (uk imin) /\ le (uk imax) (uk (snd r)) /\ covers r tf.
  Proof.
    induction tf as [|t tf IH]; intros imin imax; cbn [get_range_from].
    - cbv zeta. cbn [fst snd]. split; [apply (OrderProofs.le_refl c ok)|]. split; [apply (OrderProofs.le_refl c ok)|intros t []].
    - cbv zeta.
      set (imin' := match icmp c (imin_of t) imin with Lt => imin_of t | _ => imin end).
      set (imax' := match icmp c (imax_of t) imax with Gt => imax_of t | _ => imax end).
      destruct (IH imin' imax') as [H1 [H2 H3]].
      assert (A1 : le (uk imin') (uk imin) /\ le (uk imin') (umin_of t)).
      { unfold imin'. destruct (icmp c (imin_of t) imin) eqn:E.
        - split; [apply (OrderProofs.le_refl c ok)|]. apply (icmp_nlt_uk (imin_of t) imin). congruence.
        - split; [apply icmp_ngt_uk; congruence|apply (OrderProofs.le_refl c ok)].
        - split; [apply (OrderProofs.le_refl c ok)|]. apply (icmp_nlt_uk (imin_of t) imin). congruence. }
      assert (A2 : le (uk imax) (uk imax') /\ le (umax_of t) (uk imax')).
      { unfold imax'. destruct (icmp c (imax_of t) imax) eqn:E.
        - split; [apply (OrderProofs.le_refl c ok)|]. apply (icmp_ngt_uk (imax_of t) imax). congruence.
        - split; [apply (OrderProofs.le_refl c ok)|]. apply (icmp_ngt_uk (imax_of t) imax). congruence.
        - split; [apply icmp_nlt_uk; congruence|apply (OrderProofs.le_refl c ok)]. }
      split; [eapply (OrderProofs.le_trans c ok); [exact H1|apply A1]|].
      split; [eapply (OrderProofs.le_trans c ok); [apply A2|exact H2]|].
      intros t' [<-|Ht']; [|apply H3; exact Ht'].
      split; [eapply (OrderProofs.le_trans c ok); [exact H1|apply A1]|eapply (OrderProofs.le_trans c ok); [apply A2|exact H2]].
  Qed.

  Lemma get_range_spec tf : tf <> [] -> exists r, get_range c tf = POk r /\ covers r tf.
  Proof.
    destruct tf as [|t tf]; [congruence|]. intros _. cbn [get_range].
    exists (get_range_from c (imin_of t) (imax_of t) tf). split; [reflexivity|].
    destruct (get_range_from_spec tf (imin_of t) (imax_of t)) as [H1 [H2 H3]].
    intros t' [<-|Ht']; [split; assumption|apply H3; exact Ht'].
  Qed.

  Lemma covers_incl r a b : covers r b -> incl a b -> covers r a.
  Proof. intros H I t Ht. apply H. apply I. exact Ht. Qed.

  Lemma covers_app r a b : covers r (a ++ b) -> covers r a /\ covers r b.
  Proof. intros H. split; intros t Ht; apply H; apply in_or_app; [left|right]; exact Ht. Qed.

  Variable p : kparams.

  Lemma overlaps_of_cover r t : tbl_ok c p t ->
    le (uk (fst r)) (umin_of t) -> le (umax_of t) (uk (snd r)) ->
    t_overlaps c t (Some (uk (fst r))) (Some (uk (snd r))) = true.
  Proof.
    intros Ht H1 H2. pose proof (tbl_valid c ok p t Ht) as V.
    unfold t_overlaps. apply andb_true_intro. split; apply Bool.negb_true_iff.
    - apply (t_after_false c ok). eapply (OrderProofs.le_trans c ok); eauto.
    - apply (t_before_false c ok). eapply (OrderProofs.le_trans c ok); eauto.
  Qed.

  (* a unified statement about both variants of getOverlaps *)
  Definition closed_in (tf d : list table) : Prop :=
    forall s t x y, In s tf -> In t d -> In x (t_entries s) -> In y (t_entries t) -> e_uk x = e_uk y -> In s d.

  Lemma hull_closed_in tf d : (forall t, In t tf -> tbl_ok c p t) -> incl d tf -> hull_closed c tf d -> closed_in tf d.
  Proof.
    intros Hok Hi H s t x y Hs Ht Hx Hy Hu. apply (H s t t Hs Ht Ht).
    apply (overlaps_of_key c ok p s x _ _ (Hok s Hs) Hx). rewrite Hu.
    apply (tbl_bounds c ok p t y (Hok t (Hi t Ht)) Hy).
  Qed.

  Lemma gov_spec tf a b flag : (forall t, In t tf -> tbl_ok c p t) -> (flag = false -> bsorted c tf) ->
    exists d, get_overlaps c tf a b flag = POk d /\ incl d tf /\
      (forall s, In s tf -> t_overlaps c s a b = true -> In s d) /\
      (flag = false -> forall s, In s d -> t_overlaps c s a b = true) /\
      (flag = true -> hull_closed c tf d) /\
      (NoDup tf -> NoDup d).
  Proof.
    intros Hok Hb. destruct flag.
    - destruct (get_overlaps_l0_spec c ok tf a b) as [d [E R]]. exists d. split; [exact E|].
      split; [eapply l0_result_incl; eauto|]. split; [intros s; eapply l0_result_seeds; eauto|].
      split; [discriminate|]. split; [intros _; eapply l0_result_hull; eauto|].
      intros N. destruct R as [a' [b' [_ [_ [-> _]]]]]. apply NoDup_filter. exact N.
    - exists (get_overlaps_sorted c tf a b). split.
      { unfold get_overlaps. destruct tf; reflexivity. }
      pose proof (get_overlaps_sorted_in c ok p tf Hok (Hb eq_refl) a b) as M.
      split; [intros s Hs; apply M in Hs; apply Hs|]. split; [intros s H1 H2; apply M; split; assumption|].
      split; [intros _ s Hs; apply M in Hs; apply Hs|]. split; [discriminate|].
      intros N. rewrite get_overlaps_sorted_unfold. destruct (Nat.leb _ _); [constructor|].
      apply nodup_firstn. apply nodup_skipn. exact N.
  Qed.
End Range.

Section Expand.
  Variable c : comparer.
  Hypothesis ok : comparer_ok c.
  Variable p : kparams.
  Variable sz : table -> N.

  Notation lt := (Order.lt c).
  Notation le := (Order.le c).
  Notation umin_of := Pick.umin_of.
  Notation umax_of := Pick.umax_of.

  Variable v : list (list table).
  Variable lvl : nat.
  Variable limit : N.
  Variable seed : list table.

  (* what the proof needs of the version: well-formed tables, levels >= 1 ordered and disjoint *)
  Hypothesis Hv : forall l t, In t (nth l v []) -> tbl_ok c p t.
  Hypothesis Hs : forall l, 0 < l -> level_sorted c (nth l v []).
  Hypothesis seed_ne : seed <> [].
  Hypothesis seed_in : incl seed (nth lvl v []).
  Hypothesis seed_nd : NoDup seed.
  Hypothesis Hnd : forall l, NoDup (nth l v []).

  Let vt0 := nth lvl v [].
  Let vt1 := nth (S lvl) v [].

  Lemma lvl_bsorted l flag : (flag = false -> 0 < l) -> flag = false -> bsorted c (nth l v []).
  Proof.
    intros H F. apply (level_sorted_bsorted c p); [apply Hv|apply Hs; apply H; exact F].
  Qed.

  (* the selected inputs of both levels together with the range used to query the next level *)
  Definition sel_ok (f0 f1 : list table) (fr : ikey * ikey) : Prop :=
    incl seed f0 /\ incl f0 vt0 /\ covers c fr f0 /\ (lvl = 0 -> hull_closed c vt0 f0) /\ NoDup f0 /\ NoDup f1 /\
    (forall s, In s f1 <-> In s vt1 /\ t_overlaps c s (Some (uk (fst fr))) (Some (uk (snd fr))) = true).

  Definition pick_ok (cm : compaction) : Prop :=
    c_level cm = lvl /\ exists fr, sel_ok (c_t0 cm) (c_t1 cm) fr.

  Lemma flag_lvl : (Nat.eqb lvl 0 = false -> 0 < lvl).
  Proof. intros H. apply Nat.eqb_neq in H. lia. Qed.

  Lemma next_level_query (f0 : list table) (fr : ikey * ikey) :
    exists t1, get_overlaps c vt1 (Some (uk (fst fr))) (Some (uk (snd fr))) false = POk t1 /\
      NoDup t1 /\
      (forall s, In s t1 <-> In s vt1 /\ t_overlaps c s (Some (uk (fst fr))) (Some (uk (snd fr))) = true).
  Proof.
    destruct (gov_spec c ok p vt1 (Some (uk (fst fr))) (Some (uk (snd fr))) false (Hv (S lvl))
                (lvl_bsorted (S lvl) false ltac:(lia))) as [t1 [E [I1 [I2 [I3 [_ I5]]]]]].
    exists t1. split; [exact E|]. split; [apply I5; apply Hnd|]. intros s. split.
    - intros H. split; [apply I1; exact H|apply I3; [reflexivity|exact H]].
    - intros [H1 H2]. apply I2; assumption.
  Qed.

  Theorem expand_spec : exists cm, expand c sz v lvl limit seed = POk cm /\ pick_ok cm.
  Proof.
    unfold expand. fold vt0 vt1.
    destruct (get_range_spec c ok seed seed_ne) as [r0 [E0 C0]]. rewrite E0. cbn [pbind].
    (* stage 1: the level-0 closure of the seed *)
    set (st1 := if Nat.eqb lvl 0 then _ else POk (seed, r0)).
    assert (S1 : exists t0 rr, st1 = POk (t0, rr) /\
      incl seed t0 /\ incl t0 vt0 /\ covers c rr t0 /\ (lvl = 0 -> hull_closed c vt0 t0) /\ NoDup t0).
    { unfold st1. destruct (Nat.eqb lvl 0) eqn:L0.
      - destruct (gov_spec c ok p vt0 (Some (uk (fst r0))) (Some (uk (snd r0))) true (Hv lvl) ltac:(discriminate))
          as [t0' [E [I1 [I2 [_ [I4 I5]]]]]].
        rewrite E. cbn [pbind]. specialize (I5 (Hnd lvl)).
        assert (Sd : incl seed t0').
        { intros t Ht. apply I2; [apply seed_in; exact Ht|].
          destruct (C0 t Ht) as [A B]. apply (overlaps_of_cover c ok p r0 t); [apply (Hv lvl); apply seed_in; exact Ht| |]; assumption. }
        destruct (Nat.eqb (length t0') (length seed)) eqn:LE.
        + apply Nat.eqb_eq in LE. exists t0', r0. split; [reflexivity|]. split; [exact Sd|]. split; [exact I1|].
          split; [|split; [intros _; apply I4; reflexivity|exact I5]].
          apply (covers_incl c r0 t0' seed C0). apply (NoDup_length_incl seed_nd); [lia|exact Sd].
        + assert (Hne : t0' <> []).
          { destruct seed as [|s0 sd]; [congruence|]. intros ->. apply (Sd s0). left; reflexivity. }
          destruct (get_range_spec c ok t0' Hne) as [r0' [E1 C1]]. rewrite E1. cbn [pbind].
          exists t0', r0'. split; [reflexivity|]. split; [exact Sd|]. split; [exact I1|].
          split; [exact C1|split; [intros _; apply I4; reflexivity|exact I5]].
      - exists seed, r0. split; [reflexivity|]. split; [apply incl_refl|]. split; [exact seed_in|].
        split; [exact C0|]. split; [intros ->; discriminate|exact seed_nd]. }
    destruct S1 as [t0 [rr [E1 [Sd [In0 [Cv [Cl Nd0]]]]]]]. rewrite E1. cbn [pbind fst snd].
    assert (t0_ne : t0 <> []).
    { destruct seed as [|s0 sd]; [congruence|]. intros ->. apply (Sd s0). left; reflexivity. }
    (* stage 2: the next-level inputs *)
    destruct (next_level_query t0 rr) as [t1 [E2 [Nd1 M1]]].
    replace (fst (snd (t0, rr))) with (fst rr) by reflexivity.
    replace (snd (snd (t0, rr))) with (snd rr) by reflexivity.
    rewrite E2. cbn [pbind].
    assert (a_ne : t0 ++ t1 <> []) by (destruct t0; [congruence|discriminate]).
    destruct (get_range_spec c ok (t0 ++ t1) a_ne) as [a0 [E3 C3]]. rewrite E3. cbn [pbind].
    (* stage 3: the attempt to grow the source inputs *)
    set (st3 := match t1 with [] => _ | _ :: _ => _ end).
    assert (S3 : exists f0 f1 fr aa, st3 = POk (f0, f1, fr, aa) /\ sel_ok f0 f1 fr).
    { assert (Keep : sel_ok t0 t1 (fst rr, snd rr)).
      { destruct rr as [r1 r2]. cbn [fst snd] in *. unfold sel_ok. cbn [fst snd].
        split; [exact Sd|]. split; [exact In0|]. split; [exact Cv|]. split; [exact Cl|].
        split; [exact Nd0|]. split; [exact Nd1|exact M1]. }
      unfold st3. destruct t1 as [|u1 t1'] eqn:Et1; [exists t0, [], (fst rr, snd rr), a0; split; [reflexivity|exact Keep]|].
      rewrite <- Et1 in *. clear Et1.
      destruct (gov_spec c ok p vt0 (Some (uk (fst a0))) (Some (uk (snd a0))) (Nat.eqb lvl 0) (Hv lvl)
                  (lvl_bsorted lvl (Nat.eqb lvl 0) flag_lvl)) as [exp0 [E [I1 [I2 [_ [I4 I5]]]]]].
      rewrite E. cbn [pbind]. specialize (I5 (Hnd lvl)).
      destruct (Nat.ltb (length t0) (length exp0) && (total_size sz t1 + total_size sz exp0 <? limit)%N) eqn:Cond;
        [|exists t0, t1, (fst rr, snd rr), a0; split; [reflexivity|exact Keep]].
      apply andb_prop in Cond as [Len _]. apply Nat.ltb_lt in Len.
      assert (e_ne : exp0 <> []) by (intros ->; cbn in Len; lia).
      destruct (get_range_spec c ok exp0 e_ne) as [x [E4 C4]]. rewrite E4. cbn [pbind].
      destruct (next_level_query exp0 x) as [exp1 [E5 [Nd2 M2]]]. rewrite E5. cbn [pbind].
      destruct (Nat.eqb (length exp1) (length t1));
        [|exists t0, t1, (fst rr, snd rr), a0; split; [reflexivity|exact Keep]].
      assert (x_ne : exp0 ++ exp1 <> []) by (destruct exp0; [congruence|discriminate]).
      destruct (get_range_spec c ok (exp0 ++ exp1) x_ne) as [a1 [E6 _]]. rewrite E6. cbn [pbind].
      exists exp0, exp1, x, a1. split; [reflexivity|].
      unfold sel_ok. split; [|split; [exact I1|split; [exact C4|split; [|split; [exact I5|split; [exact Nd2|exact M2]]]]]].
      - intros t Ht. apply Sd in Ht. apply I2; [apply In0; exact Ht|].
        destruct (covers_app c a0 t0 t1 C3) as [Ca _]. destruct (Ca t Ht) as [A B].
        apply (overlaps_of_cover c ok p a0 t); [apply (Hv lvl); apply In0; exact Ht| |]; assumption.
      - intros L0. apply I4. rewrite L0. reflexivity. }
    destruct S3 as [f0 [f1 [[fmin fmax] [[amin amax] [E7 Sel]]]]]. rewrite E7. cbn [pbind].
    (* stage 4: grandparents *)
    set (st4 := if Nat.ltb (lvl + 2) (length v) then _ else POk []).
    assert (S4 : exists gp, st4 = POk gp).
    { unfold st4. destruct (Nat.ltb (lvl + 2) (length v)); [|exists []; reflexivity].
      destruct (gov_spec c ok p (nth (lvl + 2) v []) (Some (uk amin)) (Some (uk amax)) false (Hv (lvl + 2))
                  (lvl_bsorted (lvl + 2) false ltac:(lia))) as [gp [E _]].
      exists gp. exact E. }
    destruct S4 as [gp E8]. rewrite E8. cbn [pbind].
    eexists. split; [reflexivity|]. split; [reflexivity|]. cbn [c_t0 c_t1]. exists (fmin, fmax). exact Sel.
  Qed.
End Expand.
