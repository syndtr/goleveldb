(* Lsm/WritePathSteps.v — the byte-level steps of Lsm/WritePath.v keep the byte state well-formed and have the L1 steps
   as their abstraction.  Composition only: C14 (memdb iterator, put), C13 (table writer / format check, through
   WritePathTable.writer_output_ok), C15 (key order), C06 (Lsm/C06Steps.v flush_step, compaction_step,
   trivial_move_step, model_compaction_admissible; Lsm/BuilderStep.v), C01 (read path refinement, write_wf).

   The invariant [bfull]: the byte state is well-formed (ReadPathProofs.wf_bstate), the abstraction of its levels
   satisfies the step invariant of property C06 (WfLsm.wf_lsm), and no two stored entries share user key and sequence
   number. *)
From GL Require Import Codec.TableSizes Lsm.LsmProofs Lsm.ReorgProofs Lsm.WfLsm Lsm.ModelStep Lsm.C06Steps Lsm.Builder
  Lsm.BuilderCuts Lsm.BuilderStep Lsm.FinishProofs Lsm.StepProofs Lsm.OutputProofs Lsm.ReadPath Lsm.ReadPathKey
  Lsm.ReadPathMem Lsm.ReadPathTable Lsm.ReadPathProofs Lsm.WritePath Lsm.WritePathTable Lsm.WritePathMem
  Lsm.WritePathInstall Lsm.RangeStep Lsm.RangeReads.
From GL Require Mem.ListLemmas.
From Coq Require Import ZArith Lia.
Open Scope N_scope.

Section Steps.
  Variable c : comparer.
  Hypothesis ok : comparer_ok c.
  Variable p : kparams.
  Hypothesis pok : kparams_ok p.
  Hypothesis seek_val : keyTypeSeek p <= keyTypeVal p.
  Variable mp : MemDB.mparams.
  Hypothesis mpok : MemDB.mparams_ok mp.
  Variable tp : tparams.
  Hypothesis tp_ok : tparams_ok tp.
  Variable crc : bytes -> N.
  Hypothesis crc_bound : forall b, crc b < 2 ^ 32.
  Variable compress : bytes -> bytes.
  Variable decompress : bytes -> option bytes.
  Hypothesis codec_ok : forall x, decompress (compress x) = Some x.
  Hypothesis compress_ne : forall x, compress x <> [].
  Variable fname : option bytes.
  Variable ufc : bytes -> N -> bytes -> bool.
  Variable verify : bool.
  Variable o : wopts.
  Hypothesis ri_pos : 1 <= wo_ri o.

  Local Notation ri := (wo_ri o).
  Local Notation icr := (ibc c).
  Local Notation wfb := (wf_bstate c p mp tp crc decompress fname ufc verify ri).
  Local Notation absS := (ReadPath.abs c mp tp crc decompress fname ufc verify ri).
  Local Notation atab := (abs_table c tp crc decompress fname ufc verify ri).
  Local Notation okb := (tfile_okb c p tp crc decompress fname ufc verify ri).
  Local Notation pairs := (tf_pairs c tp crc decompress fname ufc verify ri).
  Local Notation av := (aversion c tp crc decompress fname ufc verify o).
  Local Notation getb := (db_get_bytes c p mp tp crc decompress fname ufc verify).
  Local Notation wf_lsm := (wf_lsm c p).
  Local Notation inst := (install c tp crc decompress fname ufc verify o).

  Record bfull (st : bstate) : Prop := {
    bf_wf : wfb st;
    bf_lsm : wf_lsm (av st);
    bf_uniq : uniq_in (all_entries (absS st))
  }.

  Lemma abs_levels st : st_levels (absS st) = av st.
  Proof. reflexivity. Qed.

  Lemma all_entries_abs st :
    all_entries (absS st) = mem_entries mp (bs_mem st) ++ mem_entries mp (bs_frozen st) ++ LE (concat (av st)).
  Proof. reflexivity. Qed.

  Lemma wf_state_parts mem frozen v :
    ssorted c mem -> kinds_ok p mem -> ssorted c frozen -> kinds_ok p frozen -> wf_lsm v ->
    newer_thanP mem frozen ->
    (forall i, newer_thanP mem (LE (lv v i))) -> (forall i, newer_thanP frozen (LE (lv v i))) ->
    wf_state c p {| st_mem := mem; st_frozen := frozen; st_aux := []; st_levels := v |}.
  Proof.
    intros S1 K1 S2 K2 W N1 N2 N3.
    destruct (wf_lsm_wf_state c p v W) as [_ _ Wa W0 Wd Wc]. cbn [st_mem st_frozen st_aux st_levels] in *.
    unfold comps in Wc. cbn [st_mem st_frozen st_aux st_levels chain_newer] in Wc. destruct Wc as (_ & _ & C3 & C4).
    assert (E : forall x, newer_thanP x []) by (intros x a b _ []).
    assert (Lv : forall x, (forall i, newer_thanP x (LE (lv v i))) -> Forall (fun y => newer_thanP x y) (map LE v)).
    { intros x H. apply Forall_forall. intros y Hy. apply in_map_iff in Hy as (l & <- & Hl).
      destruct (In_nth _ _ [] Hl) as (j & _ & <-). apply H. }
    constructor; cbn [st_mem st_frozen st_aux st_levels]; try assumption; try (split; assumption).
    unfold comps. cbn [st_mem st_frozen st_aux st_levels chain_newer].
    split; [constructor; [exact N1|constructor; [apply E|apply Lv; exact N2]]|].
    split; [constructor; [apply E|apply Lv; exact N3]|]. split; [exact C3|exact C4].
  Qed.

  (* what the parts of a well-formed state give back *)
  Lemma wf_state_newer st : wf_state c p st ->
    newer_thanP (st_mem st) (st_frozen st) /\
    (forall i, newer_thanP (st_mem st) (LE (lv (st_levels st) i))) /\
    (forall i, newer_thanP (st_frozen st) (LE (lv (st_levels st) i))).
  Proof.
    intros [_ _ _ _ _ Wc]. unfold comps in Wc. cbn [chain_newer] in Wc. destruct Wc as (C1 & C2 & _).
    inversion C1 as [|? ? N1 C1']; subst. inversion C1' as [|? ? _ C1'']; subst. inversion C2 as [|? ? _ C2']; subst.
    split; [exact N1|].
    assert (Lv : forall x, Forall (fun y => newer_thanP x y) (map LE (st_levels st)) -> forall i, newer_thanP x (LE (lv (st_levels st) i))).
    { intros x H i. unfold lv. destruct (Nat.lt_ge_cases i (length (st_levels st))) as [L|L].
      - rewrite Forall_forall in H. apply H. apply in_map. apply nth_In. exact L.
      - rewrite nth_overflow by lia. intros a b _ []. }
    split; apply Lv; assumption.
  Qed.

  Lemma mem_entries_wf d : (forall m, d = Some m -> mem_ok c p mp m) ->
    ssorted c (mem_entries mp d) /\ kinds_ok p (mem_entries mp d).
  Proof.
    intros H. destruct d as [m|]; [|split; [exact I|constructor]].
    exact (mem_ok_entries c ok p pok seek_val mp mpok m (H m eq_refl)).
  Qed.

  Lemma files_nodup st : wf_lsm (av st) -> NoDup (map tf_num (files_of st)).
  Proof.
    intros W. unfold files_of. rewrite (files_nums c tp crc decompress fname ufc verify ri). apply (wf_lsm_nodup_nums c p). exact W.
  Qed.

  Lemma in_files_level st f : In f (files_of st) -> exists i, In (atab f) (lv (av st) i).
  Proof.
    unfold files_of. intros H. apply in_concat in H as (l & Hl & Hf). destruct (In_nth _ _ [] Hl) as (i & Hi & <-).
    exists i. unfold lv, aversion. rewrite (nth_indep _ [] (map atab [])) by (rewrite map_length; exact Hi).
    rewrite map_nth. apply in_map. exact Hf.
  Qed.

  Lemma in_level_file st i t : In t (lv (av st) i) -> exists f, In f (files_of st) /\ atab f = t.
  Proof.
    unfold lv, aversion. intros H.
    destruct (Nat.lt_ge_cases i (length (bs_levels st))) as [L|L].
    - rewrite (nth_indep _ [] (map atab [])) in H by (rewrite map_length; exact L). rewrite map_nth in H.
      apply in_map_iff in H as (f & <- & Hf). exists f. split; [|reflexivity].
      unfold files_of. apply in_concat. exists (nth i (bs_levels st) []). split; [apply nth_In; exact L|exact Hf].
    - rewrite nth_overflow in H by (rewrite map_length; lia). destruct H.
  Qed.

  (* session.commit: the installed state *)
  Lemma install_ok tr st newf ed mem frozen nv :
    wfb st -> wf_lsm (av st) ->
    finish c tr (av st) ed = POk nv ->
    Forall (fun f => okb f = true) newf ->
    NoDup (map tf_num (newf ++ files_of st)) ->
    (forall l t, In t (adds_at ed l) -> exists f, In f (newf ++ files_of st) /\ atab f = t) ->
    exists st', inst tr st newf ed mem frozen = Some st' /\
      bs_mem st' = mem /\ bs_frozen st' = frozen /\ av st' = nv /\
      Forall (Forall (fun f => okb f = true)) (bs_levels st') /\ incl (files_of st') (newf ++ files_of st).
  Proof.
    intros W Wl Ef Hnew Hnd Hadd. unfold install. rewrite Ef.
    assert (Hall : forall t, In t (concat nv) -> exists f, In f (newf ++ files_of st) /\ atab f = t).
    { intros t Ht. destruct (in_concat_lv nv t Ht) as (l & Hl).
      apply (finish_in c tr (av st) ed nv Ef l t) in Hl as [(Hb & _)|Ha]; [|apply (Hadd l t Ha)].
      destruct (in_level_file st l t Hb) as (f & Hf & E). exists f. split; [apply in_or_app; right; exact Hf|exact E]. }
    destruct (levels_for_ok c tp crc decompress fname ufc verify ri _ Hnd nv Hall) as (lvs & El & Ml & Il).
    rewrite El. cbn [option_map]. eexists. split; [reflexivity|]. cbn [bs_mem bs_frozen bs_levels].
    split; [reflexivity|]. split; [reflexivity|]. split; [exact Ml|]. split; [|exact Il].
    assert (Hpool : forall f, In f (newf ++ files_of st) -> okb f = true).
    { intros f Hf. apply in_app_or in Hf as [Hf|Hf]; [rewrite Forall_forall in Hnew; apply Hnew; exact Hf|].
      pose proof (wb_tables _ _ _ _ _ _ _ _ _ _ _ W) as Ht. unfold files_of in Hf. apply in_concat in Hf as (l & Hl & Hf).
      rewrite Forall_forall in Ht. specialize (Ht l Hl). rewrite Forall_forall in Ht. apply Ht. exact Hf. }
    apply Forall_forall. intros l Hl. apply Forall_forall. intros f Hf. apply Hpool. apply Il.
    apply in_concat. exists l. split; assumption.
  Qed.

  (* uniq_in and the sequence bound are properties of the SET of stored entries *)
  Lemma uniq_in_same l1 l2 : same_elems l1 l2 -> uniq_in l1 -> uniq_in l2.
  Proof. intros S U a b Ha Hb. apply U; apply S; assumption. Qed.

  Lemma LE_finish tr v ed nv : finish c tr v ed = POk nv -> forall x,
    In x (LE (concat nv)) <->
    exists l t, In x (t_entries t) /\
      ((In t (lv v l) /\ memN (t_num t) (dels_at ed l (lv v l)) = false /\ memN (t_num t) (nums_of (adds_at ed l)) = false)
       \/ In t (adds_at ed l)).
  Proof.
    intros Ef x. rewrite in_LE_concat. split.
    - intros (l & Hx). apply LE_in in Hx as (t & Ht & Hx). exists l, t. split; [exact Hx|].
      apply (finish_in c tr v ed nv Ef l t). exact Ht.
    - intros (l & t & Hx & Ht). exists l. apply LE_in. exists t. split; [|exact Hx].
      apply (finish_in c tr v ed nv Ef l t). exact Ht.
  Qed.

  (* rotateMem / newMem *)
  Theorem rotate_step st d : bfull st -> bs_mem st = Some d -> bs_frozen st = None ->
    exists st' d0, b_rotate mp st = Some st' /\ bfull st' /\
      bs_mem st' = Some d0 /\ bs_frozen st' = Some d /\ bs_levels st' = bs_levels st /\
      st_mem (absS st') = [] /\ st_frozen (absS st') = st_mem (absS st) /\ st_levels (absS st') = st_levels (absS st) /\
      all_entries (absS st') = all_entries (absS st).
  Proof.
    intros [W Wl U] Hm Hf.
    destruct (mem_new_ok c p seek_val mp mpok) as (d0 & E0 & M0 & P0).
    unfold b_rotate. rewrite Hm, Hf, E0. eexists. exists d0. split; [reflexivity|].
    set (st' := mkBS (Some d0) (Some d) (bs_levels st)).
    assert (Em : st_mem (absS st') = []) by (cbn [ReadPath.abs st_mem st' bs_mem mem_entries]; rewrite P0; reflexivity).
    assert (Efz : st_frozen (absS st') = st_mem (absS st)) by (cbn [ReadPath.abs st_mem st_frozen st' bs_mem bs_frozen]; rewrite Hm; reflexivity).
    assert (Eall : all_entries (absS st') = all_entries (absS st)).
    { rewrite !all_entries_abs. cbn [st' bs_mem bs_frozen]. rewrite Hm, Hf. cbn [mem_entries]. rewrite P0. cbn [map app]. reflexivity. }
    destruct (wf_state_newer _ (wb_abs _ _ _ _ _ _ _ _ _ _ _ W)) as (_ & N2 & _).
    destruct (mem_entries_wf (bs_mem st) (wb_mem _ _ _ _ _ _ _ _ _ _ _ W)) as [S1 K1].
    split; [|repeat split; try reflexivity; assumption].
    constructor.
    - constructor.
      + intros x Hx. cbn [st' bs_mem] in Hx. injection Hx as <-. exact M0.
      + intros x Hx. cbn [st' bs_frozen] in Hx. injection Hx as <-. apply (wb_mem _ _ _ _ _ _ _ _ _ _ _ W). exact Hm.
      + exact (wb_tables _ _ _ _ _ _ _ _ _ _ _ W).
      + change (absS st') with {| st_mem := st_mem (absS st'); st_frozen := st_frozen (absS st'); st_aux := []; st_levels := av st |}.
        rewrite Em, Efz. apply wf_state_parts; try assumption.
        * exact I.
        * constructor.
        * intros a b [].
        * intros i a b [].
    - exact Wl.
    - rewrite Eall. exact U.
  Qed.

  Local Notation fsz st := (file_size (files_of st)).

  Lemma write_table_some num kvs data : kvs <> [] -> table_bytes c p tp crc compress o kvs = Some data ->
    write_table c p tp crc compress o num kvs = Some (mkTF num (key_first kvs) (key_last kvs) data).
  Proof. intros Hne E. unfold write_table. destruct kvs; [congruence|]. rewrite E. reflexivity. Qed.

  (* the model writer, fed non-empty strictly increasing stored pairs that pass the size check, writes a file that
     passes the format check and decodes to the pairs *)
  Lemma write_table_ok n kvs :
    kvs <> [] -> Cursor.sorted icr kvs -> keys_ok p kvs -> write_sizes_ok c p tp crc compress o kvs = true ->
    (wo_filter o = None \/
     forall f, write_table c p tp crc compress o n kvs = Some f -> filter_part c tp crc decompress fname ufc verify f = true) ->
    exists f, write_table c p tp crc compress o n kvs = Some f /\ okb f = true /\ pairs f = kvs /\ tf_num f = n.
  Proof.
    intros Hne Hso Hks Hsz Hflt.
    pose proof Hsz as Hsz0. unfold write_sizes_ok in Hsz0. apply andb_prop in Hsz0 as [_ Hb].
    destruct (table_bytes c p tp crc compress o kvs) as [data|] eqn:Eb; [|discriminate].
    pose proof (write_table_some n kvs data Hne Eb) as Ewt.
    destruct (writer_output_ok c ok p pok tp tp_ok crc crc_bound compress decompress codec_ok compress_ne fname ufc verify o ri_pos
                n kvs data Hso Hne Hks Eb Hsz) as (Hokf & Hpf & _).
    { destruct Hflt as [Hn|Hf]; [left; exact Hn|right; apply Hf; exact Ewt]. }
    eexists. split; [exact Ewt|]. split; [exact Hokf|]. split; [exact Hpf|reflexivity].
  Qed.

  Definition frozen_table (num : N) (st : bstate) : table := {| t_num := num; t_entries := st_frozen (absS st) |}.

  (* memCompaction *)
  Theorem flush_step st d num :
    bfull st -> bs_frozen st = Some d ->
    (forall f, In f (files_of st) -> tf_num f <> num) ->
    (forall x, In x (all_entries (absS st)) -> e_seq x <= keyMaxSeq p) ->
    (mem_pairs mp d <> [] -> write_sizes_ok c p tp crc compress o (mem_pairs mp d) = true) ->
    (wo_filter o = None \/
     forall f, write_table c p tp crc compress o num (mem_pairs mp d) = Some f ->
               filter_part c tp crc decompress fname ufc verify f = true) ->
    exists st', b_flush c p mp tp crc compress decompress fname ufc verify o num st = Some st' /\ bfull st' /\
      same_elems (all_entries (absS st)) (all_entries (absS st')) /\
      bs_mem st' = bs_mem st /\ bs_frozen st' = None /\
      (mem_pairs mp d = [] -> bs_levels st' = bs_levels st) /\
      (mem_pairs mp d <> [] ->
         finish c true (av st) (flush_edit c p (fsz st) (av st) (wo_gpOverlaps o) (wo_memMaxLevel o) (frozen_table num st))
         = POk (av st') /\
         exists f, write_table c p tp crc compress o num (mem_pairs mp d) = Some f /\ okb f = true /\
                   atab f = frozen_table num st /\ In f (files_of st')).
  Proof.
    intros [W Wl U] Hfz Hfresh Hseq Hsz Hflt.
    pose proof (wb_frozen _ _ _ _ _ _ _ _ _ _ _ W d Hfz) as Md.
    unfold b_flush. rewrite Hfz, (mem_iter_pairs c ok p seek_val mp mpok d Md).
    assert (Efr : st_frozen (absS st) = map entry_of (mem_pairs mp d)) by (cbn [ReadPath.abs st_frozen]; rewrite Hfz; reflexivity).
    destruct (mem_pairs mp d) as [|kv0 kvr] eqn:Ekv.
    - (* empty: the frozen memdb is dropped *)
      eexists. split; [reflexivity|]. set (st' := mkBS (bs_mem st) None (bs_levels st)).
      assert (Eabs : absS st' = absS st).
      { unfold ReadPath.abs. cbn [st' bs_mem bs_frozen bs_levels]. rewrite Hfz. cbn [mem_entries]. rewrite Ekv. reflexivity. }
      split; [constructor|].
      + constructor.
        * exact (wb_mem _ _ _ _ _ _ _ _ _ _ _ W).
        * intros x Hx. discriminate.
        * exact (wb_tables _ _ _ _ _ _ _ _ _ _ _ W).
        * rewrite Eabs. exact (wb_abs _ _ _ _ _ _ _ _ _ _ _ W).
      + exact Wl.
      + rewrite Eabs. exact U.
      + rewrite Eabs. split; [intros x; reflexivity|]. split; [reflexivity|]. split; [reflexivity|]. split; [reflexivity|]. intros Q. congruence.
    - (* a table is written *)
      set (kvs := kv0 :: kvr) in *. assert (Hne : kvs <> []) by discriminate.
      destruct (write_table_ok num kvs Hne) as (f & Ewt & Hokf & Hpf & Enum); [| |exact (Hsz Hne)|exact Hflt|].
      { rewrite <- Ekv. exact (mem_ok_pairs_sorted c p seek_val mp mpok d Md). }
      { rewrite <- Ekv. exact (mem_ok_keys c p mp d Md). }
      assert (Etab : atab f = frozen_table num st).
      { unfold abs_table, frozen_table. rewrite Hpf, Efr, Enum. reflexivity. }
      rewrite Ewt.
      (* the hypotheses of the L1 flush step *)
      destruct (mem_entries_wf (bs_frozen st) (wb_frozen _ _ _ _ _ _ _ _ _ _ _ W)) as [S2 K2].
      change (mem_entries mp (bs_frozen st)) with (st_frozen (absS st)) in S2, K2.
      destruct (wf_state_newer _ (wb_abs _ _ _ _ _ _ _ _ _ _ _ W)) as (N1 & N2 & N3).
      assert (Hfin : forall x, In x (st_frozen (absS st)) -> In x (all_entries (absS st))).
      { intros x Hx. unfold all_entries. apply in_or_app. right. apply in_or_app. left. exact Hx. }
      assert (Hlin : forall i x, In x (LE (lv (av st) i)) -> In x (all_entries (absS st))).
      { intros i x Hx. rewrite all_entries_abs. apply in_or_app. right. apply in_or_app. right.
        apply in_LE_concat. exists i. exact Hx. }
      assert (FO : flushed_ok c p (av st) (frozen_table num st)).
      { split; [|split; [|split]].
        - split; [split; assumption|]. cbn [frozen_table t_entries]. rewrite Efr. discriminate.
        - cbn [frozen_table t_entries]. apply (ssorted_uniq c ok); [exact S2|].
          intros a b Ha Hb'. apply U; apply Hfin; assumption.
        - intros i x y Hx Hy. cbn [frozen_table t_entries] in Hx. apply (N3 i x y Hx Hy).
        - intros i s Hs. destruct (in_level_file st i s Hs) as (g & Hg & <-). cbn [frozen_table t_num abs_table]. apply Hfresh. exact Hg. }
      assert (SF : seqs_fit p (av st)).
      { intros i t Ht. apply Hseq. apply (Hlin i). apply LE_in. exists t. split; [exact Ht|].
        destruct (wl_tbl c p _ Wl i t Ht) as [_ Hnz]. unfold t_hi. destruct (t_entries t) as [|e r] eqn:Et; [congruence|].
        rewrite (ListLemmas.last_cons_default r e no_entry). apply (ReadPathProofs.in_last r e). }
      destruct (flush_step c ok p pok (fsz st) (av st) (wo_gpOverlaps o) (wo_memMaxLevel o) _ Wl SF FO) as (nv & Ef & Wnv).
      rewrite Etab.
      set (ed := flush_edit c p (fsz st) (av st) (wo_gpOverlaps o) (wo_memMaxLevel o) (frozen_table num st)) in *.
      set (k := pick_memdb_level c p (fsz st) (av st) (Some (umin_of (frozen_table num st))) (Some (umax_of (frozen_table num st)))
                  (wo_gpOverlaps o) (wo_memMaxLevel o)) in *.
      assert (Eadd : forall l, adds_at ed l = if Nat.eqb k l then [frozen_table num st] else []).
      { intros l. unfold adds_at, ed, flush_edit. cbn [ed_add filter fst]. fold k. destruct (Nat.eqb k l); reflexivity. }
      assert (Edel : forall l base, dels_at ed l base = []).
      { intros l base. unfold dels_at, ed, flush_edit. cbn [ed_del filter map]. destruct base; reflexivity. }
      destruct (install_ok true st [f] ed (bs_mem st) None nv W Wl Ef) as (st' & Ei & Em' & Ef' & Eav & Hall & Hincl).
      { constructor; [exact Hokf|constructor]. }
      { cbn [app map]. constructor; [|apply files_nodup; exact Wl].
        intros Hin. apply in_map_iff in Hin as (g & Eg & Hg). apply (Hfresh g Hg). rewrite Eg. exact Enum. }
      { intros l t Ht. rewrite Eadd in Ht. destruct (Nat.eqb k l); [|destruct Ht]. destruct Ht as [<-|[]].
        exists f. split; [left; reflexivity|exact Etab]. }
      exists st'. split; [exact Ei|].
      (* the entries of the new levels: the old ones and the frozen memdb's *)
      assert (HLE : forall x, In x (LE (concat (av st'))) <-> In x (st_frozen (absS st)) \/ In x (LE (concat (av st)))).
      { intros x. rewrite Eav, (LE_finish true (av st) ed nv Ef x). split.
        - intros (l & t & Hx & [(Ht & _)|Ht]).
          + right. apply in_LE_concat. exists l. apply LE_in. exists t. auto.
          + rewrite Eadd in Ht. destruct (Nat.eqb k l); [|destruct Ht]. destruct Ht as [<-|[]]. left. exact Hx.
        - intros [Hx|Hx].
          + exists k, (frozen_table num st). split; [exact Hx|]. right. rewrite Eadd, Nat.eqb_refl. left. reflexivity.
          + apply in_LE_concat in Hx as (l & Hx). apply LE_in in Hx as (t & Ht & Hx). exists l, t. split; [exact Hx|]. left.
            split; [exact Ht|]. rewrite Edel. split; [reflexivity|]. rewrite Eadd.
            destruct (Nat.eqb k l); [|reflexivity]. cbn [nums_of map memN existsb frozen_table t_num].
            destruct (in_level_file st l t Ht) as (g & Hg & <-). cbn [abs_table t_num].
            destruct (N.eqb_spec (tf_num g) num) as [Q|Q]; [exfalso; apply (Hfresh g Hg Q)|reflexivity]. }
      assert (Hnewlv : forall i x, In x (LE (lv (av st') i)) -> In x (st_frozen (absS st)) \/ exists j, In x (LE (lv (av st) j))).
      { intros i x Hx. assert (Hc : In x (LE (concat (av st')))) by (apply in_LE_concat; exists i; exact Hx).
        apply HLE in Hc as [Hc|Hc]; [left; exact Hc|right; apply in_LE_concat; exact Hc]. }
      assert (SE : same_elems (all_entries (absS st)) (all_entries (absS st'))).
      { intros x. rewrite !all_entries_abs, Em', Ef'. cbn [mem_entries app]. rewrite !in_app_iff, HLE.
        change (mem_entries mp (bs_frozen st)) with (st_frozen (absS st)). clear. tauto. }
      split; [constructor|].
      + constructor.
        * rewrite Em'. exact (wb_mem _ _ _ _ _ _ _ _ _ _ _ W).
        * rewrite Ef'. intros x Hx. discriminate.
        * exact Hall.
        * destruct (mem_entries_wf (bs_mem st) (wb_mem _ _ _ _ _ _ _ _ _ _ _ W)) as [S1 K1].
          change (absS st') with {| st_mem := mem_entries mp (bs_mem st'); st_frozen := mem_entries mp (bs_frozen st'); st_aux := []; st_levels := av st' |}.
          rewrite Em', Ef'. cbn [mem_entries]. apply wf_state_parts; try assumption.
          -- exact I.
          -- constructor.
          -- rewrite Eav. exact Wnv.
          -- intros a b _ [].
          -- intros i a b Ha Hb2. destruct (Hnewlv i b Hb2) as [Hb'|(j & Hb')]; [apply (N1 a b Ha Hb')|apply (N2 j a b Ha Hb')].
          -- intros i a b [].
      + rewrite Eav. exact Wnv.
      + apply (uniq_in_same _ _ SE U).
      + split; [exact SE|]. split; [exact Em'|]. split; [exact Ef'|]. split; [intros Q; discriminate|].
        intros _. split; [rewrite Eav; exact Ef|]. exists f. split; [reflexivity|]. split; [exact Hokf|]. split; [exact Etab|].
        (* the new file is installed *)
        assert (Hin : In (frozen_table num st) (lv (av st') k)).
        { rewrite Eav. apply (finish_in c true (av st) ed nv Ef k). right. rewrite Eadd, Nat.eqb_refl. left. reflexivity. }
        destruct (in_level_file st' k _ Hin) as (g & Hg & Eg).
        destruct (Hincl g Hg) as [<-|Q]; [exact Hg|].
        exfalso. apply (Hfresh g Q). pose proof (f_equal t_num Eg) as En. cbn [abs_table t_num frozen_table] in En. exact En.
  Qed.

  Definition stored (e : entry) : Prop :=
    exists kv, e = entry_of kv /\ key_okb p (fst kv) = true /\ item_kv (IGood e) = kv.

  Lemma stored_of_kv kv : key_okb p (fst kv) = true -> stored (entry_of kv).
  Proof.
    intros Hk. exists kv. split; [reflexivity|]. split; [exact Hk|].
    destruct (key_okb_dec p _ Hk) as (k & D & _). unfold item_kv.
    rewrite (e_ikey_entry_of kv k D), (entry_of_dec kv k D). cbn [e_val].
    destruct (ik_dec_some _ _ D) as (_ & _ & E). rewrite E. destruct kv; reflexivity.
  Qed.

  Lemma file_entries_stored f e : okb f = true -> In e (t_entries (atab f)) -> stored e.
  Proof.
    intros Hf He. destruct (okb_facts c p tp crc decompress fname ufc verify ri f Hf) as (bl & se & hs & F).
    unfold abs_table in He. cbn [t_entries] in He. apply in_map_iff in He as (kv & <- & Hkv).
    apply stored_of_kv. pose proof (tff_keys _ _ _ _ _ _ _ _ _ _ _ _ _ F) as Hk.
    rewrite <- (tff_pairs _ _ _ _ _ _ _ _ _ _ _ _ _ F) in Hk. unfold keys_ok in Hk. rewrite Forall_forall in Hk. apply Hk. exact Hkv.
  Qed.

  Lemma level_entries_stored st i e : wfb st -> In e (LE (lv (av st) i)) -> stored e.
  Proof.
    intros W He. apply LE_in in He as (t & Ht & He). destruct (in_level_file st i t Ht) as (f & Hf & <-).
    apply (file_entries_stored f e); [|exact He].
    pose proof (wb_tables _ _ _ _ _ _ _ _ _ _ _ W) as Hts. unfold files_of in Hf. apply in_concat in Hf as (l & Hl & Hf).
    rewrite Forall_forall in Hts. specialize (Hts l Hl). rewrite Forall_forall in Hts. apply Hts. exact Hf.
  Qed.

  Lemma chunk_kvs_entries es : Forall stored es ->
    map entry_of (chunk_kvs es) = es /\ Forall (fun kv => key_okb p (fst kv) = true) (chunk_kvs es).
  Proof.
    induction es as [|e es IH]; intros H; [split; [reflexivity|constructor]|].
    inversion H as [|? ? Hs H']; subst. destruct Hs as (kv & E1 & Hk & E2). destruct (IH H') as [J1 J2].
    unfold chunk_kvs in *. cbn [map]. rewrite E2. split; [rewrite <- E1, J1; reflexivity|constructor; assumption].
  Qed.

  (* entries strictly ordered by the internal-key order = their encoded keys strictly ordered *)
  Lemma ssorted_sorted_from k0 kv0 kvs : ik_dec (fst kv0) = Some k0 -> keys_ok p kvs ->
    ssorted c (map entry_of (kv0 :: kvs)) -> Cursor.sorted_from icr (fst kv0) kvs.
  Proof.
    revert k0 kv0. induction kvs as [|[k1 v1] kvs IH]; intros k0 kv0 D0 Hk Hs; [exact I|].
    inversion Hk as [|? ? Hk1 Hk']; subst. cbn [fst] in Hk1. destruct (key_okb_dec p _ Hk1) as (x1 & D1 & _).
    cbn [map ssorted] in Hs. destruct Hs as [F1 Hs]. cbn [Cursor.sorted_from]. split.
    - inversion F1 as [|? ? E1 _]; subst. unfold ecmp in E1.
      rewrite (e_ikey_entry_of kv0 k0 D0), (e_ikey_entry_of (k1, v1) x1 D1) in E1.
      rewrite (ibc_dec c _ _ _ _ D0 D1). exact E1.
    - apply (IH x1 (k1, v1) D1 Hk'). cbn [map ssorted]. exact Hs.
  Qed.

  Lemma ssorted_sorted kvs : keys_ok p kvs -> ssorted c (map entry_of kvs) -> Cursor.sorted icr kvs.
  Proof.
    destruct kvs as [|[k0 v0] kvs]; [intros; exact I|]. intros Hk Hs.
    inversion Hk as [|? ? Hk0 Hk']; subst. cbn [fst] in Hk0. destruct (key_okb_dec p _ Hk0) as (x0 & D0 & _).
    cbn [Cursor.sorted]. apply (ssorted_sorted_from x0 (k0, v0) kvs D0 Hk' Hs).
  Qed.

  (* the filter condition of ONE written table: no filter policy configured (goleveldb's default), or the file the model
     writer produces for these pairs satisfies the no-false-negative condition of property C16 (ReadPath.filter_okb, a
     boolean the correspondence run evaluates) *)
  Definition table_filter_ok (kvs : list (bytes * bytes)) : Prop :=
    wo_filter o = None \/
    forall n f, write_table c p tp crc compress o n kvs = Some f -> filter_part c tp crc decompress fname ufc verify f = true.

  (* ... for every table the session could write *)
  Definition filter_safe : Prop :=
    wo_filter o = None \/
    forall n kvs f, write_table c p tp crc compress o n kvs = Some f -> filter_part c tp crc decompress fname ufc verify f = true.

  Lemma filter_safe_table kvs : filter_safe -> table_filter_ok kvs.
  Proof. intros [H|H]; [left; exact H|right; intros n f; apply H]. Qed.

  Definition chunk_ok (ch : list entry) : Prop :=
    ch <> [] /\ Forall stored ch /\ ssorted c ch /\ write_sizes_ok c p tp crc compress o (chunk_kvs ch) = true /\
    table_filter_ok (chunk_kvs ch).

  Lemma write_chunk n ch : chunk_ok ch ->
    exists f, write_table c p tp crc compress o n (chunk_kvs ch) = Some f /\ okb f = true /\
              atab f = {| t_num := n; t_entries := ch |} /\ tf_num f = n.
  Proof.
    intros (Hne & Hst & Hso & Hsz & Hfl). destruct (chunk_kvs_entries ch Hst) as [Eent Hk].
    assert (Hkne : chunk_kvs ch <> []) by (destruct ch; [congruence|discriminate]).
    destruct (write_table_ok n (chunk_kvs ch) Hkne) as (f & Ewt & Hokf & Hpf & En); [|exact Hk|exact Hsz| |].
    { apply ssorted_sorted; [exact Hk|rewrite Eent; exact Hso]. }
    { destruct Hfl as [Hn|Hf]; [left; exact Hn|right; exact (Hf n)]. }
    exists f. split; [exact Ewt|]. split; [exact Hokf|]. split; [|exact En].
    unfold abs_table. rewrite Hpf, Eent, En. reflexivity.
  Qed.

  Lemma write_outputs_ok : forall nums chunks, length nums = length chunks -> Forall chunk_ok chunks ->
    exists outs, write_outputs c p tp crc compress o nums chunks = Some outs /\
      Forall (fun f => okb f = true) outs /\ map atab outs = mk_outputs nums chunks /\ map tf_num outs = nums.
  Proof.
    induction nums as [|n nums IH]; intros [|ch chunks] Hl Hc; cbn [length] in Hl; try lia.
    - exists []. repeat split; constructor.
    - inversion Hc as [|? ? Hch Hc']; subst.
      destruct (write_chunk n ch Hch) as (f & Ef & Hok & Et & En).
      destruct (IH chunks ltac:(lia) Hc') as (outs & Eo & Ho & Mo & No).
      exists (f :: outs). cbn [write_outputs]. rewrite Ef, Eo. split; [reflexivity|].
      split; [constructor; assumption|]. split; [cbn [map mk_outputs]; rewrite Et, Mo; reflexivity|cbn [map]; rewrite En, No; reflexivity].
  Qed.

  Lemma uniq_in_incl l1 l2 : (forall x, In x l2 -> In x l1) -> uniq_in l1 -> uniq_in l2.
  Proof. intros S U a b Ha Hb. apply U; apply S; assumption. Qed.

  Definition others_of (st : bstate) (cm : compaction) : list entry :=
    LE (filter (fun t => negb (is_input (nums_of (c_t0 cm ++ c_t1 cm)) t)) (concat (av st))).
  Definition bufs_of (st : bstate) : list entry := st_mem (absS st) ++ st_frozen (absS st).

  Lemma all_entries_bufs st x : In x (all_entries (absS st)) <-> In x (bufs_of st) \/ In x (LE (concat (av st))).
  Proof. rewrite all_entries_abs. unfold bufs_of. cbn [ReadPath.abs st_mem st_frozen]. rewrite !in_app_iff. tauto. Qed.

  (* installing the record of a table compaction or of a trivial move *)
  Lemma reorg_install st lvl seed cm newf outs nv :
    bfull st -> seed_ok (av st) lvl seed -> new_compaction c (fsz st) (av st) lvl (wo_expandLimit o lvl) seed = POk cm ->
    finish c true (av st) (compaction_edit cm outs) = POk nv -> wf_lsm nv -> step_effect (av st) cm outs nv ->
    Forall (fun f => okb f = true) newf -> NoDup (map tf_num (newf ++ files_of st)) ->
    (forall t, In t outs -> exists f, In f (newf ++ files_of st) /\ atab f = t) ->
    (forall x, In x (LE outs) -> In x (LE (c_t0 cm ++ c_t1 cm))) ->
    exists st', inst true st newf (compaction_edit cm outs) (bs_mem st) (bs_frozen st) = Some st' /\ bfull st' /\
      bs_mem st' = bs_mem st /\ bs_frozen st' = bs_frozen st /\ av st' = nv /\
      (forall x, In x (all_entries (absS st')) <-> In x (bufs_of st) \/ In x (LE outs) \/ In x (others_of st cm)) /\
      (forall x, In x (LE (concat (av st))) <-> In x (LE (c_t0 cm ++ c_t1 cm)) \/ In x (others_of st cm)).
  Proof.
    intros [W Wl U] Sd Ecm Ef Wnv Eff Hnew Hnd Hpool Hent.
    pose proof (fun x => new_entries c ok p (fsz st) (av st) Wl lvl _ seed Sd cm Ecm outs nv Eff x) as Hne'. cbv zeta in Hne'.
    pose proof (fun x => old_entries c ok p (fsz st) (av st) Wl lvl _ seed Sd cm Ecm x) as Hold. cbv zeta in Hold.
    assert (Hsplit : forall x, In x (LE (concat (av st))) <-> In x (LE (c_t0 cm ++ c_t1 cm)) \/ In x (others_of st cm))
      by (intros x; rewrite Hold, in_app_iff; reflexivity).
    destruct (install_ok true st newf (compaction_edit cm outs) (bs_mem st) (bs_frozen st) nv W Wl Ef Hnew Hnd) as (st' & Ei & Em & Efz & Eav & Hall & _).
    { intros l t Ht. rewrite adds_at_ce in Ht. destruct (Nat.eqb (S (c_level cm)) l); [|destruct Ht]. apply Hpool. exact Ht. }
    exists st'. split; [exact Ei|].
    assert (Ebufs : bufs_of st' = bufs_of st) by (unfold bufs_of; cbn [ReadPath.abs st_mem st_frozen]; rewrite Em, Efz; reflexivity).
    assert (Hce : forall x, In x (LE (concat (av st'))) <-> In x (LE outs) \/ In x (others_of st cm)).
    { intros x. rewrite Eav, Hne', in_app_iff. reflexivity. }
    assert (Hall' : forall x, In x (all_entries (absS st')) <-> In x (bufs_of st) \/ In x (LE outs) \/ In x (others_of st cm)).
    { intros x. rewrite all_entries_bufs, Ebufs, Hce. reflexivity. }
    assert (Hsub : forall x, In x (LE (concat (av st'))) -> In x (LE (concat (av st)))).
    { intros x Hx. apply Hce in Hx. apply Hsplit. destruct Hx as [Hx|Hx]; [left; apply Hent; exact Hx|right; exact Hx]. }
    destruct (wf_state_newer _ (wb_abs _ _ _ _ _ _ _ _ _ _ _ W)) as (N1 & N2 & N3).
    assert (Hlvl : forall i x, In x (LE (lv (av st') i)) -> exists j, In x (LE (lv (av st) j))).
    { intros i x Hx. apply in_LE_concat. apply Hsub. apply in_LE_concat. exists i. exact Hx. }
    split; [constructor|].
    - constructor.
      + rewrite Em. exact (wb_mem _ _ _ _ _ _ _ _ _ _ _ W).
      + rewrite Efz. exact (wb_frozen _ _ _ _ _ _ _ _ _ _ _ W).
      + exact Hall.
      + destruct (mem_entries_wf (bs_mem st) (wb_mem _ _ _ _ _ _ _ _ _ _ _ W)) as [S1 K1].
        destruct (mem_entries_wf (bs_frozen st) (wb_frozen _ _ _ _ _ _ _ _ _ _ _ W)) as [S2 K2].
        change (absS st') with {| st_mem := mem_entries mp (bs_mem st'); st_frozen := mem_entries mp (bs_frozen st'); st_aux := []; st_levels := av st' |}.
        rewrite Em, Efz. apply wf_state_parts; try assumption.
        * rewrite Eav. exact Wnv.
        * intros i a b Ha Hb2. destruct (Hlvl i b Hb2) as (j & Hj). apply (N2 j a b Ha Hj).
        * intros i a b Ha Hb2. destruct (Hlvl i b Hb2) as (j & Hj). apply (N3 j a b Ha Hj).
    - rewrite Eav. exact Wnv.
    - apply (uniq_in_incl (all_entries (absS st))); [|exact U]. intros x Hx. apply all_entries_bufs.
      apply all_entries_bufs in Hx as [Hx|Hx]; [left; rewrite <- Ebufs; exact Hx|right; apply Hsub; exact Hx].
    - split; [exact Em|]. split; [exact Efz|]. split; [exact Eav|]. split; [exact Hall'|exact Hsplit].
  Qed.

  Lemma seed_tables_ok st lvl seed : wf_lsm (av st) -> seed_tables (av st) lvl seed <> [] ->
    seed_ok (av st) lvl (seed_tables (av st) lvl seed).
  Proof.
    intros Wl Hne. split; [exact Hne|]. split.
    - intros t Ht. unfold seed_tables in Ht. apply filter_In in Ht as [Ht _]. exact Ht.
    - unfold seed_tables. apply NoDup_filter. apply (lv_nodup c p _ Wl).
  Qed.

  (* tableCompaction: the trivial move *)
  Theorem move_step st lvl seed :
    bfull st -> seed_tables (av st) lvl seed <> [] ->
    exists cm, b_pick c tp crc decompress fname ufc verify o st lvl seed = POk cm /\
      (trivial (fsz st) cm (wo_gpOverlaps o lvl) = true ->
       exists st', b_trivial_move c tp crc decompress fname ufc verify o lvl seed st = Some st' /\ bfull st' /\
         bs_mem st' = bs_mem st /\ bs_frozen st' = bs_frozen st /\
         finish c true (av st) (move_edit cm) = POk (av st') /\
         same_elems (all_entries (absS st)) (all_entries (absS st'))).
  Proof.
    intros B Hne. pose proof B as [W Wl U]. pose proof (seed_tables_ok st lvl seed Wl Hne) as Sd. pose proof Sd as (S1 & S2 & S3).
    destruct (model_pick c ok p (fsz st) (av st) Wl lvl (wo_expandLimit o lvl) _ S1 S2 S3) as (cm & Ecm & Pk).
    exists cm. split; [exact Ecm|]. intros T.
    destruct (trivial_shape (fsz st) cm _ T) as (t & E0 & E1).
    destruct (model_move_levels c ok p (fsz st) (av st) Wl lvl _ S1 S2 cm Pk t E0 E1) as (nv & Ef & Wnv & Eff).
    unfold b_trivial_move, b_pick. rewrite Ecm, T.
    destruct (reorg_install st lvl _ cm [] (c_t0 cm) nv B Sd Ecm Ef Wnv Eff) as (st' & Ei & B' & Em & Efz & Eav & Hall & Hsplit).
    - constructor.
    - cbn [app]. apply files_nodup. exact Wl.
    - intros t' Ht'. destruct (in_level_file st lvl t' (pk_t0 c _ _ _ cm Pk _ Ht')) as (f & Hf & E). exists f. split; [exact Hf|exact E].
    - intros x Hx. rewrite LE_app. apply in_or_app. left. exact Hx.
    - exists st'. split; [exact Ei|]. split; [exact B'|]. split; [exact Em|]. split; [exact Efz|]. split; [rewrite Eav; exact Ef|].
      intros x. rewrite Hall, all_entries_bufs, (Hsplit x). rewrite E1, app_nil_r. clear. tauto.
  Qed.

  (* tableCompaction: tableCompactionBuilder + commit *)
  Local Notation blen := (bytes_len c p tp crc compress o).

  Theorem compact_step st lvl seed os nums minSeq :
    bfull st -> seed_tables (av st) lvl seed <> [] -> minSeq < keyMaxSeq p ->
    NoDup nums -> (forall n f, In n nums -> In f (files_of st) -> tf_num f <> n) ->
    exists cm, b_pick c tp crc decompress fname ufc verify o st lvl seed = POk cm /\
      forall s',
        let deeper := skipn (lvl + 2) (av st) in
        transact c p (fsz st) (c_gp cm) (wo_gpOverlaps o lvl) deeper minSeq (wo_strict o) (wo_tableSize o (S lvl)) blen os
                 (map IGood (merge_inputs c (c_t0 cm ++ c_t1 cm))) (bst0 deeper) = (s', TDone) ->
        length nums = length (fin s') ->
        Forall (fun ch => write_sizes_ok c p tp crc compress o (chunk_kvs ch) = true /\ table_filter_ok (chunk_kvs ch)) (fin s') ->
        exists st', b_compact c p tp crc compress decompress fname ufc verify o lvl seed os nums minSeq st = Some st' /\ bfull st' /\
          bs_mem st' = bs_mem st /\ bs_frozen st' = bs_frozen st /\
          outputs_of c p cm minSeq deeper (fin s') /\
          finish c true (av st) (compaction_edit cm (mk_outputs nums (fin s'))) = POk (av st') /\
          (forall x, In x (all_entries (absS st')) -> In x (all_entries (absS st))) /\
          (forall k s, minSeq <= s ->
             History.res p (newest c k s (all_entries (absS st')) None) = History.res p (newest c k s (all_entries (absS st)) None)).
  Proof.
    intros B Hne Hms Hnd Hfresh. pose proof B as [W Wl U].
    pose proof (seed_tables_ok st lvl seed Wl Hne) as Sd. pose proof Sd as (S1 & S2 & S3).
    set (sd := seed_tables (av st) lvl seed) in *.
    destruct (model_pick c ok p (fsz st) (av st) Wl lvl (wo_expandLimit o lvl) sd S1 S2 S3) as (cm & Ecm & Pk).
    exists cm. split; [exact Ecm|]. intros s' deeper Htr Hlen Hsz.
    pose proof (pk_level c _ _ _ cm Pk) as Elvl.
    assert (I0 : incl (c_t0 cm) (lv (av st) lvl)) by (intros t Ht; apply (pk_t0 c _ _ _ cm Pk t Ht)).
    assert (I1 : incl (c_t1 cm) (lv (av st) (S lvl))) by (intros t Ht; apply (pk_t1 c _ _ _ cm Pk t Ht)).
    (* the builder's tables are outputs *)
    destruct (builder_outputs_of c ok p pok (fsz st) (av st) lvl (wo_expandLimit o lvl) sd Wl Sd) as (cm' & Ecm' & Hb).
    rewrite Ecm in Ecm'. injection Ecm' as <-.
    destruct (Hb (c_gp cm) (wo_gpOverlaps o lvl) minSeq (wo_strict o) (wo_tableSize o (S lvl)) blen os s' Htr) as (_ & [Cuts Kept] & _ & _).
    fold deeper in Cuts, Kept.
    set (chunks := fin s') in *.
    pose proof (kept_sorted c ok p pok (fsz st) (av st) Wl lvl sd cm Pk minSeq deeper chunks Kept) as Hks.
    destruct (outputs_well_formed c ok chunks Cuts Hks) as [Hwfc _].
    assert (HkI : forall x, In x (concat chunks) -> In x (LE (c_t0 cm ++ c_t1 cm))) by (intros x Hx; apply (kept_I c p cm minSeq deeper chunks Kept x Hx)).
    assert (Hinp : forall x, In x (LE (c_t0 cm ++ c_t1 cm)) -> exists j, In x (LE (lv (av st) j))).
    { intros x Hx. rewrite LE_app in Hx. apply in_app_or in Hx as [Hx|Hx]; apply LE_in in Hx as (t & Ht & Hx).
      - exists lvl. apply LE_in. exists t. split; [apply I0; exact Ht|exact Hx].
      - exists (S lvl). apply LE_in. exists t. split; [apply I1; exact Ht|exact Hx]. }
    assert (Hchunks : Forall chunk_ok chunks).
    { apply Forall_forall. intros ch Hch. rewrite Forall_forall in Hwfc, Hsz. destruct (Hwfc ch Hch) as [Hs Hn].
      split; [exact Hn|]. split; [|split; [exact Hs|apply Hsz; exact Hch]].
      apply Forall_forall. intros e He. destruct (Hinp e) as (j & Hj).
      - apply HkI. apply in_concat. exists ch. split; assumption.
      - apply (level_entries_stored st j e W Hj). }
    destruct (write_outputs_ok nums chunks Hlen Hchunks) as (outs & Eo & Hoko & Mo & No).
    (* the L1 compaction step *)
    destruct (model_build_levels c ok p pok (fsz st) (av st) Wl lvl sd S1 S2 cm Pk minSeq deeper chunks nums Cuts Kept Hlen Hnd)
      as (nv & Ef & Wnv & Eff).
    { intros n i t Hn Ht. destruct (in_level_file st i t Ht) as (f & Hf & <-). apply (Hfresh n f Hn Hf). }
    assert (Hnums : map t_num (mk_outputs nums chunks) = nums) by (apply mk_outputs_nums; exact Hlen).
    assert (Eole : LE (mk_outputs nums chunks) = concat chunks) by (unfold LE, LsmProofs.level_entries; rewrite (mk_outputs_entries nums chunks Hlen); reflexivity).
    destruct (reorg_install st lvl sd cm outs (mk_outputs nums chunks) nv B Sd Ecm Ef Wnv Eff Hoko) as (st' & Ei & B' & Em & Efz & Eav & Hall & Hsplit).
    - rewrite map_app, No. apply ListLemmas.NoDup_app_iff. split; [exact Hnd|]. split; [apply files_nodup; exact Wl|].
      intros n Hn Hc. apply in_map_iff in Hc as (f & En & Hf). apply (Hfresh n f Hn Hf En).
    - intros t Ht. rewrite <- Mo in Ht. apply in_map_iff in Ht as (f & <- & Hf). exists f. split; [apply in_or_app; left; exact Hf|reflexivity].
    - intros x Hx. apply HkI. rewrite <- Eole. exact Hx.
    - exists st'. unfold b_compact, b_pick. fold sd. rewrite Ecm. fold deeper. rewrite Htr.
      change (fin_of s') with chunks. rewrite Eo.
      split; [exact Ei|]. split; [exact B'|]. split; [exact Em|]. split; [exact Efz|].
      split; [split; [exact Cuts|exact Kept]|]. split; [rewrite Eav; exact Ef|].
      assert (Eouts : LE (mk_outputs nums chunks) = compact_entries c p minSeq deeper (c_t0 cm ++ c_t1 cm))
        by (rewrite Eole; exact Kept).
      split.
      + intros x Hx. apply Hall in Hx. apply all_entries_bufs. destruct Hx as [Hx|[Hx|Hx]]; [left; exact Hx| |].
        * right. apply Hsplit. left. apply HkI. rewrite <- Eole. exact Hx.
        * right. apply Hsplit. right. exact Hx.
      + intros k s Hs.
        (* both collections, as sets, in the shape of ModelStep.model_compaction_admissible *)
        set (others := bufs_of st ++ others_of st cm).
        assert (Unew : uniq_in (all_entries (absS st'))) by exact (bf_uniq _ B').
        assert (SEnew : same_elems (all_entries (absS st')) (compact_entries c p minSeq deeper (c_t0 cm ++ c_t1 cm) ++ others)).
        { intros x. rewrite Hall, Eouts. unfold others. rewrite !in_app_iff. clear. tauto. }
        assert (SEold : same_elems (all_entries (absS st)) (LE (c_t0 cm ++ c_t1 cm) ++ others)).
        { intros x. rewrite all_entries_bufs, (Hsplit x). unfold others. rewrite !in_app_iff. clear. tauto. }
        rewrite (newest_same_elems c ok k s _ _ Unew SEnew), (newest_same_elems c ok k s _ _ U SEold).
        destruct (wf_state_newer _ (wb_abs _ _ _ _ _ _ _ _ _ _ _ W)) as (N1 & N2 & N3).
        apply (ModelStep.model_compaction_admissible c ok p pok (fsz st) (av st) Wl lvl sd S2 cm Pk (bufs_of st) minSeq Hms).
        * apply (uniq_in_incl (all_entries (absS st))); [|exact U]. intros x Hx. apply all_entries_bufs. left. exact Hx.
        * intros m i x Hm Hx Hu. unfold bufs_of in Hm. apply in_app_or in Hm as [Hm|Hm].
          -- apply (N2 i m x Hm Hx). symmetry. exact Hu.
          -- apply (N3 i m x Hm Hx). symmetry. exact Hu.
        * exact Hs.
  Qed.

  (* the same stored entries in another place: every read, at every sequence number, is unchanged *)
  Theorem reads_same st st' : bfull st -> bfull st' -> same_elems (all_entries (absS st)) (all_entries (absS st')) ->
    forall k s, wf_bytes k -> s <= keyMaxSeq p -> getb st' k s = getb st k s.
  Proof.
    intros B B' SE k s Wk Hs.
    rewrite (get_correct_bytes c ok p pok seek_val mp mpok tp crc decompress fname ufc verify ri k s Wk Hs st' (bf_wf _ B')).
    rewrite (get_correct_bytes c ok p pok seek_val mp mpok tp crc decompress fname ufc verify ri k s Wk Hs st (bf_wf _ B)).
    rewrite (newest_same_elems c ok k s _ _ (bf_uniq _ B) SE). reflexivity.
  Qed.

  (* a table compaction with the drop rule: every read at a sequence number >= minSeq returns the same value *)
  Theorem reads_kept st st' minSeq : bfull st -> bfull st' ->
    (forall k s, minSeq <= s ->
       History.res p (newest c k s (all_entries (absS st')) None) = History.res p (newest c k s (all_entries (absS st)) None)) ->
    forall k s, wf_bytes k -> minSeq <= s -> s <= keyMaxSeq p -> bapi (getb st' k s) = bapi (getb st k s).
  Proof.
    intros B B' H k s Wk Hm Hs.
    rewrite (get_correct_bytes c ok p pok seek_val mp mpok tp crc decompress fname ufc verify ri k s Wk Hs st' (bf_wf _ B')).
    rewrite (get_correct_bytes c ok p pok seek_val mp mpok tp crc decompress fname ufc verify ri k s Wk Hs st (bf_wf _ B)).
    cbn [bapi]. f_equal. apply (H k s Hm).
  Qed.
End Steps.
