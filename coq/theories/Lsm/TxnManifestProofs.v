(* Lsm/TxnManifestProofs.v — Commit's effect on the manifest (Lsm/TxnBytes.v session_commit / commit_loop, with
   the manifest record codec and replay of Codec/SessionRecord.v, property C04): the record a commit attempt
   appends is ONE record; it encodes; decoded it is the record built from (next-file-num, seq-num = tr.seq, the
   private tables at level 0); replayed behind any manifest it changes exactly that: the sequence number
   becomes tr.seq, the next file number the one it carries, and the live tables gain exactly the private tables;
   a prefix of the manifest's records that does not hold it replays as if the transaction had never been. *)
From GL Require Import Codec.SessionRecordSpec Codec.SessionRecordCutProofs Codec.SessionRecordBuildProofs
  Store.ManifestReplayProofs.
From GL Require Lsm.TxnBytes.
From Coq Require Import Lia.
Open Scope N_scope.

Lemma tag_neq p : rparams_ok p -> forall i j, (i < 8)%nat -> (j < 8)%nat -> i <> j -> nth i (tags p) 0 <> nth j (tags p) 0.
Proof. intros [Hn _] i j Hi Hj Hij E. exact (Hij (proj1 (NoDup_nth (tags p) 0) Hn i j Hi Hj E)). Qed.

Section Manifest.
  Variable p : rparams.
  Hypothesis pok : rparams_ok p.

  Lemma tag_facts :
    tNextFileNum p <> tComparer p /\ tSeqNum p <> tComparer p /\ tNextFileNum p <> tJournalNum p /\
    tSeqNum p <> tJournalNum p /\ tNextFileNum p <> tSeqNum p.
  Proof. repeat split; [apply (tag_neq p pok 2 0)|apply (tag_neq p pok 3 0)|apply (tag_neq p pok 2 1)|apply (tag_neq p pok 3 1)|apply (tag_neq p pok 2 3)]; lia. Qed.

  (* the fields of the record Commit writes *)
  Definition commit_fields (adds : list atrec) (seq : N) (nf : Z) : rfields :=
    mkrf None None (Some nf) (Some seq) [] [] adds.

  (* tr.rec before the commit: added tables only (Transaction.flush: addTableFile), nothing else that is written *)
  Definition rec_plain (r : srec) : Prop :=
    sr_cps r = [] /\ sr_dels r = [] /\ has r (tComparer p) = false /\ has r (tJournalNum p) = false.

  (* tr.rec.setSeqNum(tr.seq), then fillRecord's setNextFileNum *)
  Definition commit_rec (r : srec) (seq : N) (nf : Z) : srec := set_nextfile p (set_seq p r seq) nf.

  Lemma items_of_commit r seq nf : rec_plain r ->
    items_of p (commit_rec r seq nf) = items_of_fields (commit_fields (sr_adds r) seq nf).
  Proof.
    intros (Ec & Ed & Hc & Hj). destruct tag_facts as (T1 & T2 & T3 & T4 & T5).
    unfold items_of, commit_rec, has, set_nextfile, set_seq in *.
    cbn [sr_has sr_comparer sr_journal sr_nextfile sr_seq sr_cps sr_dels sr_adds]. rewrite !N.setbit_eqb, Hc, Hj, Ec, Ed.
    rewrite !N.eqb_refl.
    replace (tNextFileNum p =? tComparer p) with false by (symmetry; apply N.eqb_neq; exact T1).
    replace (tSeqNum p =? tComparer p) with false by (symmetry; apply N.eqb_neq; exact T2).
    replace (tNextFileNum p =? tJournalNum p) with false by (symmetry; apply N.eqb_neq; exact T3).
    replace (tSeqNum p =? tJournalNum p) with false by (symmetry; apply N.eqb_neq; exact T4).
    cbn [orb]. rewrite Bool.orb_true_r. reflexivity.
  Qed.

  (* the record of a commit encodes, and read back it is the record built from its three kinds of fields *)
  Theorem commit_record_roundtrip r seq nf : rec_plain r -> fields_ok (commit_fields (sr_adds r) seq nf) ->
    exists b, encode p (commit_rec r seq nf) = Some b /\
              decode p sr_empty b = DOk (build p (commit_fields (sr_adds r) seq nf)).
  Proof.
    intros Hp Hf. assert (R : rec_ok p (commit_rec r seq nf)) by (unfold rec_ok; rewrite items_of_commit; assumption).
    destruct (record_roundtrip p pok _ R) as (b & E & D). exists b. split; [exact E|].
    rewrite D, (items_of_commit r seq nf Hp). reflexivity.
  Qed.

  Lemma scalar_of_snoc {A} t (f : srec -> A) rs r :
    scalar_of t f (rs ++ [r]) = if has r t then Some (f r) else scalar_of t f rs.
  Proof. unfold scalar_of, last_some. rewrite map_app. cbn [map]. rewrite last_some_from_snoc. destruct (has r t); reflexivity. Qed.

  Lemma live_of_snoc rs r : live_of (rs ++ [r]) = live_apply (live_of rs) r.
  Proof. unfold live_of. rewrite fold_left_app. reflexivity. Qed.

  Theorem commit_replay cmp rs j pj nf0 q live cps adds seq nf :
    replay_result p cmp rs = SpecOk j pj nf0 q live cps ->
    replay_result p cmp (rs ++ [build p (commit_fields adds seq nf)]) =
    SpecOk j pj nf seq (fold_left live_add adds live) cps.
  Proof.
    set (r := build p (commit_fields adds seq nf)). unfold replay_result. intros H.
    rewrite !scalar_of_snoc. unfold r.
    rewrite (has_build_comparer p pok), (has_build_journal p pok), (has_build_nextfile p pok), (has_build_seq p pok), (has_build_prev p pok).
    cbn [commit_fields f_comparer f_journal f_nextfile f_seq is_some].
    destruct (scalar_of (tComparer p) sr_comparer rs) as [cn|]; [|discriminate].
    destruct (negb (beq cn cmp)); [discriminate|].
    destruct (scalar_of (tNextFileNum p) sr_nextfile rs) as [nfo|]; [|discriminate].
    destruct (scalar_of (tJournalNum p) sr_journal rs) as [jo|]; [|discriminate].
    destruct (scalar_of (tSeqNum p) sr_seq rs) as [qo|]; [|discriminate].
    injection H as <- <- <- <- <- <-.
    rewrite live_of_snoc, flat_map_app. cbn [flat_map]. rewrite (build_closed p).
    cbn [commit_fields f_comparer f_journal f_nextfile f_seq f_cps f_dels f_adds sr_nextfile sr_seq sr_cps odflt].
    unfold live_apply. cbn [sr_adds sr_dels fold_left]. rewrite !app_nil_r. reflexivity.
  Qed.

  (* "adds exactly the private tables": for tables whose file numbers are new at their level, the live set after
     the record is the old live set plus those tables *)
  Definition adds_fresh (live adds : list atrec) : Prop :=
    NoDup (map at_num adds) /\
    forall a x, In a adds -> In x live -> same_file (at_level a) (at_num a) x = false.

  Lemma live_add_in live a x : In x (live_add live a) <-> x = a \/ (In x live /\ same_file (at_level a) (at_num a) x = false).
  Proof.
    unfold live_add. cbn [In]. rewrite filter_In, Bool.negb_true_iff. split; [intros [H|H]; [left; symmetry; exact H|right; exact H]|].
    intros [H|H]; [left; symmetry; exact H|right; exact H].
  Qed.

  Lemma live_adds_fresh adds : forall live, adds_fresh live adds -> Forall (fun a => at_level a = 0%Z) adds ->
    forall x, In x (fold_left live_add adds live) <-> In x adds \/ In x live.
  Proof.
    induction adds as [|a adds IH]; intros live [Hn Hf] Hl x; cbn [fold_left]; [cbn [In]; tauto|].
    cbn [map] in Hn. apply NoDup_cons_iff in Hn as [Hna Hn]. inversion Hl as [|? ? La Hl']; subst.
    rewrite (IH (live_add live a)).
    - rewrite live_add_in. cbn [In]. split.
      + intros [H|[H|[H _]]]; auto.
      + intros [[H|H]|H]; auto. right. right. split; [exact H|]. apply (Hf a x); [left; reflexivity|exact H].
    - split; [exact Hn|]. intros a' y Ha' Hy. apply live_add_in in Hy as [->|[Hy _]].
      + unfold same_file. rewrite Forall_forall in Hl'. rewrite (Hl' a' Ha'), La. cbn [Z.eqb andb].
        apply Z.eqb_neq. intros E. apply Hna. rewrite E. apply in_map. exact Ha'.
      + apply (Hf a' y); [right; exact Ha'|exact Hy].
    - exact Hl'.
  Qed.

  Lemma Forall2_firstn {A B} (R : A -> B -> Prop) k : forall l1 l2, Forall2 R l1 l2 -> Forall2 R (firstn k l1) (firstn k l2).
  Proof.
    induction k as [|k IH]; intros l1 l2 H; [constructor|]. destruct H; cbn [firstn]; [constructor|].
    constructor; [assumption|apply IH; assumption].
  Qed.

  (* C11_commit_crash_atomic, manifest part.  Whatever prefix of the records of the manifest file survives (torn
     bytes never yield more than a prefix of the records: C04_byte_cut_is_record_image), recovery either replays
     a prefix of the manifest as it was BEFORE the commit — the transaction's record is not read at all — or the
     whole manifest including the record: then the sequence number is tr.seq and every private table is live.
     There is no image with some of the transaction's tables, or with the tables but the old sequence number. *)
  Theorem commit_crash_atomic strict cmp recs rs b adds seq nf j pj nf0 q live cps k :
    Forall2 (fun b r => decode p sr_empty b = DOk r) recs rs ->
    decode p sr_empty b = DOk (build p (commit_fields adds seq nf)) ->
    replay_result p cmp rs = SpecOk j pj nf0 q live cps ->
    let img := firstn k (recs ++ [b]) in
    ((k <= length recs)%nat /\ img = firstn k recs /\
       agrees (session_recover p strict cmp img) (replay_result p cmp (firstn k rs))) \/
    ((length recs < k)%nat /\ img = recs ++ [b] /\
       agrees (session_recover p strict cmp img) (SpecOk j pj nf seq (fold_left live_add adds live) cps)).
  Proof.
    intros HF Hb Hr img. destruct (Nat.le_gt_cases k (length recs)) as [Hk|Hk].
    - left. assert (E : img = firstn k recs) by (unfold img; rewrite firstn_app; replace (k - length recs)%nat with O by lia; cbn [firstn]; apply app_nil_r).
      split; [exact Hk|]. split; [exact E|]. rewrite E. apply (manifest_replay p pok). apply Forall2_firstn. exact HF.
    - right. assert (E : img = recs ++ [b]).
      { unfold img. rewrite firstn_all2; [reflexivity|]. rewrite app_length. cbn [length]. lia. }
      split; [exact Hk|]. split; [exact E|]. rewrite E, <- (commit_replay cmp rs j pj nf0 q live cps adds seq nf Hr).
      apply (manifest_replay p pok). apply Forall2_app; [exact HF|]. constructor; [exact Hb|constructor].
  Qed.
End Manifest.

Section RecInv.
  Import Lsm.ReadPath Lsm.TxnBytes.
  Variable c : Order.comparer.
  Variable kp : IKey.kparams.
  Variable mp : MemDB.mparams.
  Variable p : rparams.
  Hypothesis pok : rparams_ok p.

  (* tr.rec holds the private tables as level-0 additions and nothing else that a record writes, whatever
     happened before (flushes, failed commits: setSeqNum / setNextFileNum only touch scalar fields) *)
  Definition rec_inv (t : ttxn) : Prop :=
    rec_plain p (tt_rec t) /\ sr_adds (tt_rec t) = map (at_of 0) (tt_tables t).

  (* setting the bit of a field other than the comparer's and the journal number's, the lists untouched *)
  Lemma rec_plain_setbit i r r' : (1 < i < 8)%nat ->
    sr_has r' = N.setbit (sr_has r) (nth i (tags p) 0) -> sr_cps r' = sr_cps r -> sr_dels r' = sr_dels r ->
    rec_plain p r -> rec_plain p r'.
  Proof.
    intros Hi Eh Ec Ed (A & B & C & D).
    assert (T0 : nth i (tags p) 0 <> tComparer p) by (apply (tag_neq p pok i 0); lia).
    assert (T1 : nth i (tags p) 0 <> tJournalNum p) by (apply (tag_neq p pok i 1); lia).
    unfold rec_plain, has in *. rewrite Eh, Ec, Ed, !N.setbit_eqb, C, D.
    rewrite (proj2 (N.eqb_neq _ _) T0), (proj2 (N.eqb_neq _ _) T1). auto.
  Qed.

  Lemma rec_plain_set_seq r q : rec_plain p r -> rec_plain p (set_seq p r q).
  Proof. apply (rec_plain_setbit 3); [lia|reflexivity..]. Qed.

  Lemma rec_plain_set_nextfile r n : rec_plain p r -> rec_plain p (set_nextfile p r n).
  Proof. apply (rec_plain_setbit 2); [lia|reflexivity..]. Qed.

  Lemma rec_plain_add_table r a : rec_plain p r -> rec_plain p (add_table p r a).
  Proof. apply (rec_plain_setbit 6); [lia|reflexivity..]. Qed.

  Lemma rec_inv_open q d cap : rec_inv (mkTT q d cap 1 [] sr_empty false false).
  Proof.
    split; [|reflexivity]. unfold rec_plain, has. cbn [tt_rec sr_empty sr_has sr_cps sr_dels]. rewrite !N.bits_0. auto.
  Qed.

  Lemma t_flush_rec t fo t' r : rec_inv t -> t_flush mp p t fo = (t', r) -> rec_inv t'.
  Proof.
    intros [Hp Ha]. unfold t_flush. destruct (MemDB.mdb_len (tt_mem t) =? 0)%Z; [intros E; injection E as <- <-; split; assumption|].
    destruct fo as [f cap|]; [|intros E; injection E as <- <-; split; assumption].
    assert (G : forall d cp rf, rec_inv (mkTT (tt_seq t) d cp rf (tt_tables t ++ [f]) (add_table p (tt_rec t) (at_of 0 f)) (tt_closed t) (tt_cfailed t))).
    { intros d cp rf. split; cbn [tt_rec tt_tables]; [apply rec_plain_add_table; exact Hp|].
      unfold add_table. cbn [sr_adds]. rewrite Ha, map_app. reflexivity. }
    destruct (tt_refs t =? 1).
    - destruct (MemDB.mdb_reset mp (tt_mem t)); intros E; injection E as <- <-; try (split; assumption). apply G.
    - destruct (MemDB.mdb_new mp); intros E; injection E as <- <-; try (split; assumption). apply G.
  Qed.

  Lemma t_put_rec t kt k v o t' r : rec_inv t -> t_put c kp mp p t kt k v o = (t', r) -> rec_inv t'.
  Proof.
    intros RI. unfold t_put. destruct (IKey.make_ikey kp k (Batch.u64 (tt_seq t + 1)) kt); [|intros E; injection E as <- <-; exact RI].
    match goal with |- context [if ?b then t_flush mp p t (pi_flush o) else (t, TOk)] => destruct b end.
    - destruct (t_flush mp p t (pi_flush o)) as [t1 r1] eqn:Ef. pose proof (t_flush_rec t _ t1 r1 RI Ef) as R1.
      destruct r1; try (intros E; injection E as <- <-; exact R1).
      destruct (Batch.put_one kp (ibc c) mp (tt_mem t1) [pi_h o] k (Batch.u64 (tt_seq t + 1)) kt v); intros E; injection E as <- <-; exact R1.
    - destruct (Batch.put_one kp (ibc c) mp (tt_mem t) [pi_h o] k (Batch.u64 (tt_seq t + 1)) kt v); intros E; injection E as <- <-; exact RI.
  Qed.

  Lemma t_puts_rec recs : forall t os t' r, rec_inv t -> t_puts c kp mp p t recs os = (t', r) -> rec_inv t'.
  Proof.
    induction recs as [|[[kt k] v] rest IH]; intros t os t' r RI; cbn [t_puts]; [intros E; injection E as <- <-; exact RI|].
    destruct (t_put c kp mp p t kt k v (hd (mkPI 1 FlErr 0) os)) as [t1 r1] eqn:Ep.
    pose proof (t_put_rec _ _ _ _ _ _ _ RI Ep) as R1.
    destruct r1; try (intros E; injection E as <- <-; exact R1). apply IH. exact R1.
  Qed.

  Lemma session_commit_rec w r seq lvls a w' r' b : session_commit p w r seq lvls a = Some (w', r', b) ->
    r' = r \/ r' = set_nextfile p r (ai_nf a).
  Proof.
    unfold session_commit. destruct (tw_mfail w || ai_rot a).
    - destruct (encode p (snapshot_rec p w seq (ai_nf a) lvls)); [|discriminate].
      destruct (ai_ok a); intros E; injection E as _ <- _; left; reflexivity.
    - unfold edit_rec. destruct (encode p (set_nextfile p r (ai_nf a))); [|discriminate].
      destruct (ai_ok a); intros E; injection E as _ <- _; right; reflexivity.
  Qed.

  Lemma commit_loop_rec sof n : forall w t atts w' t' b, rec_inv t -> commit_loop p sof n w t atts = Some (w', t', b) -> rec_inv t'.
  Proof.
    induction n as [|n IH]; intros w t atts w' t' b RI; cbn [commit_loop]; [intros E; injection E as _ <- _; exact RI|].
    destruct (session_commit p w (tt_rec t) (Some (tt_seq t)) (install_tables (bs_levels (tw_db w)) (tt_tables t)) (hd no_att atts))
      as [[[w1 r1] b1]|] eqn:Es; [|discriminate].
    assert (R1 : rec_inv (tt_with_rec t r1)).
    { destruct RI as [Hp Ha]. destruct (session_commit_rec _ _ _ _ _ _ _ _ Es) as [-> | ->]; split; cbn [tt_with_rec tt_rec tt_tables]; auto.
      apply rec_plain_set_nextfile. exact Hp. }
    destruct b1; [intros E; injection E as _ <- _; exact R1|].
    apply IH. destruct R1 as [A B]. split; cbn [tt_failed tt_rec tt_tables] in *; assumption.
  Qed.

  Definition wrec_inv (w : tworld) : Prop := match tw_tr w with Some t => rec_inv t | None => True end.

  (* every step of the byte machine keeps it *)
  Theorem bstep_rec_inv sof w o : wrec_inv w -> wrec_inv (fst (bstep c kp mp p sof w o)).
  Proof.
    unfold wrec_inv. intros H.
    assert (Keep : forall r : tres, match tw_tr (fst (w, r)) with Some t => rec_inv t | None => True end) by (intros r; exact H).
    destruct o; unfold bstep, w_open, w_put, w_write, w_iter_open, w_iter_release, w_commit, w_discard, w_env, on_open.
    - destruct (tw_tr w) as [t|] eqn:Et; [apply Keep|]. destruct (open_ready (tw_db w)); [|apply Keep].
      destruct (MemDB.mdb_new mp); try apply Keep. cbn [fst tw_with_tr tw_tr]. apply rec_inv_open.
    - destruct (tw_tr w) as [t|] eqn:Et; [|apply Keep]. destruct (tt_closed t); [apply Keep|].
      destruct (t_put c kp mp p t kt key value o) as [t' r] eqn:Ep. cbn [fst tw_with_tr tw_tr]. apply (t_put_rec _ _ _ _ _ _ _ H Ep).
    - destruct (Batch.batch_len b =? 0); [apply Keep|]. destruct (tw_tr w) as [t|] eqn:Et; [|apply Keep].
      destruct (tt_closed t); [apply Keep|]. destruct (Batch.batch_records b) as [recs|]; cbn [fst tw_with_tr tw_tr]; [|exact H].
      destruct (t_puts c kp mp p t recs os) as [t' r] eqn:Ep. cbn [fst tw_with_tr tw_tr]. apply (t_puts_rec _ _ _ _ _ H Ep).
    - destruct (tw_tr w) as [t|] eqn:Et; [|apply Keep]. destruct (tt_closed t); [apply Keep|].
      cbn [fst tw_with_tr tw_tr]. destruct H as [A B]. split; assumption.
    - cbn [fst]. destruct (tw_tr w) as [t|] eqn:Et; [|rewrite Et; exact I]. cbn [tw_with_tr tw_tr]. destruct H as [A B]. split; assumption.
    - destruct (tw_tr w) as [t0|] eqn:Et; [|apply Keep]. destruct (tt_closed t0); [apply Keep|].
      destruct (t_flush mp p t0 fo) as [t r] eqn:Ef. pose proof (t_flush_rec _ _ _ _ H Ef) as R1.
      destruct r; cbn [fst tw_with_tr tw_tr]; try exact R1.
      destruct (tt_tables t); [exact I|].
      match goal with |- context [commit_loop p sof 3 w ?t1 atts] => destruct (commit_loop p sof 3 w t1 atts) as [[[w' t'] b]|] eqn:El end.
      + assert (R2 : rec_inv t').
        { apply (commit_loop_rec sof 3 _ _ _ _ _ _) with (2 := El). destruct R1 as [A B]. split; cbn [tt_with_rec tt_rec tt_tables].
          - apply rec_plain_set_seq. exact A.
          - exact B. }
        destruct b; cbn [fst tw_with_tr tw_tr]; [exact I|exact R2].
      + cbn [fst]. rewrite Et. exact H.
    - cbn [fst]. destruct (tw_tr w) as [t|] eqn:Et; [|rewrite Et; exact I]. destruct (tt_closed t); [rewrite Et; exact H|].
      destruct (tt_cfailed t).
      + match goal with |- context [if tw_mfail ?w1 then _ else _] => destruct (tw_mfail w1) end.
        * match goal with |- context [session_commit p ?w1 sr_empty None ?l fresh] => destruct (session_commit p w1 sr_empty None l fresh) as [[[w2 r2] b2]|] end;
            [destruct b2|]; exact I.
        * exact I.
      + exact I.
    - exact H.
  Qed.

  (* C11_commit_is_one_record, the record.  In any state the byte machine reaches, an attempt of Commit that goes
     through flushManifest and succeeds appends exactly ONE record to the manifest, and that record, decoded, is the
     record built from: next-file-num, seq-num = tr.seq, and the private tables as additions at level 0. *)
  Theorem commit_appends_one_record w t a lvls : rec_inv t -> (tw_mfail w || ai_rot a) = false -> ai_ok a = true ->
    fields_ok (commit_fields (map (at_of 0) (tt_tables t)) (tt_seq t) (ai_nf a)) ->
    exists b w' r', session_commit p w (set_seq p (tt_rec t) (tt_seq t)) (Some (tt_seq t)) lvls a = Some (w', r', true) /\
      tw_man w' = tw_man w ++ [b] /\
      decode p sr_empty b = DOk (build p (commit_fields (map (at_of 0) (tt_tables t)) (tt_seq t) (ai_nf a))).
  Proof.
    intros [Hp Ha] Hpath Hok Hf. rewrite <- Ha in Hf.
    destruct (commit_record_roundtrip p pok (tt_rec t) (tt_seq t) (ai_nf a) Hp Hf) as (b & E & D).
    unfold session_commit. rewrite Hpath. unfold edit_rec. unfold commit_rec in E. rewrite E, Hok.
    eexists b, _, _. split; [reflexivity|]. split; [reflexivity|]. rewrite <- Ha. exact D.
  Qed.
End RecInv.
