(* Lsm/WriterExact.v — the writer theorem of property C13 (Codec/TableWriteProofs.v table_written) in the form the
   composition of property C01 needs: not only "the opened file is SOME well-formed table" but the decomposition the
   executable format check Codec/TableCheck.v computes — the index block and every data block the reader fetches are
   exactly the blocks blockWriter builds for the pairs (so table_parse returns this decomposition and table_wfb accepts
   it), all below 2^32 bytes, and without a filter generator the reader has no filter. *)
From GL Require Import Base.Bytes Base.BytesProofs Base.Varint Base.VarintProofs Base.Order Base.OrderProofs
  Base.Cursor Base.CursorProofs Codec.Block Codec.BlockEnc Codec.BlockProofs Codec.Table Codec.TableProofs
  Codec.TableWriteProofs Codec.TableSizes Codec.TableWriteSnappyProofs Codec.TableCheck Codec.TableCheckProofs.
From Coq Require Import Arith ZArith Lia ZifyN ZifyNat ZifyBool.

Local Open Scope N_scope.

Theorem table_written_exact tp (tp_ok : tparams_ok tp) crc (crc_bound : forall b, crc b < 2 ^ 32)
    compress decompress (codec_ok : forall x, decompress (compress x) = Some x)
    (compress_ne : forall x, compress x <> []) fcontains c (c_ok : comparer_ok c)
    (empty_least : forall k, cmp c [] k <> Gt) blockSize ri (ri_pos : 1 <= ri) fgen snappy kvs file fname verify :
  sorted c kvs ->
  twrite tp crc compress c blockSize ri snappy fgen kvs = Some file ->
  lenN file < 2 ^ 32 ->
  table_sizes_ok tp crc compress c blockSize ri snappy fgen kvs = true ->
  exists blocks seps hs,
    let rd := open_table tp crc decompress fcontains c file fname verify in
    table_wf c rd blocks seps hs /\
    tkvs blocks = kvs /\
    tr_index rd = Ok (built 1 (ientries seps hs)) /\
    lenN (block_build 1 (ientries seps hs)) < 2 ^ 32 /\
    (forall j, (j < length blocks)%nat ->
       tr_fetch rd (nth j hs bh0) = Ok (built ri (nth j blocks [])) /\
       lenN (block_build ri (nth j blocks [])) < 2 ^ 32) /\
    (fgen = None -> tr_filter rd = None).
Proof.
  intros Hsorted Hw Hsize Hok.
  exact (table_written tp tp_ok crc crc_bound compress decompress codec_ok fcontains c c_ok empty_least
           blockSize ri ri_pos fgen snappy (fun _ => compress_ne) kvs file fname verify Hsorted Hw Hsize (fun _ => Hok)).
Qed.

(* From that decomposition to the executable check: table_parse recomputes it and table_wfb accepts it (exact_check). *)
Lemma block_eqb_refl b : block_eqb b b = true.
Proof.
  unfold block_eqb. rewrite !N.eqb_refl, !andb_true_r. apply beq_eq. reflexivity.
Qed.

Lemma is_built_built ri kvs : 1 <= ri -> lenN (block_build ri kvs) < 2 ^ 32 -> is_built ri kvs (built ri kvs) = true.
Proof.
  intros Hri Hsz. unfold is_built. rewrite (read_block_build ri kvs Hri Hsz), block_eqb_refl.
  change two32 with (2 ^ 32). replace (lenN (block_build ri kvs) <? 2 ^ 32) with true by lia. reflexivity.
Qed.

Lemma block_entries_built ri kvs : 1 <= ri -> lenN (block_build ri kvs) < 2 ^ 32 -> block_entries (built ri kvs) = Ok kvs.
Proof. intros Hri Hsz. apply (block_entries_spec kvs _ _ _ (build_layout ri kvs Hri Hsz)). Qed.

Lemma sortedb_from_complete c k l : sorted_from c k l -> TableCheck.sortedb_from c k l = true.
Proof.
  revert k. induction l as [|[k' v'] r IH]; intros k H; cbn [sorted_from TableCheck.sortedb_from] in *; [reflexivity|].
  destruct H as [H1 H2]. unfold Order.ltb. rewrite H1. cbn [andb]. apply IH. exact H2.
Qed.

Lemma sortedb_complete c l : sorted c l -> TableCheck.sortedb c l = true.
Proof. destruct l as [|[k v] r]; cbn [sorted TableCheck.sortedb]; [reflexivity | apply sortedb_from_complete]. Qed.

Lemma decode_handles_combine (seps : list bytes) : forall (hs : list bhandle), length seps = length hs ->
  (forall h, In h hs -> bh_off h < 2 ^ 64 /\ bh_len h < 2 ^ 64) ->
  decode_handles (combine seps (map encode_bh hs)) = Some hs.
Proof.
  induction seps as [|s seps IH]; intros [|h hs] Hl Hb; cbn [length] in Hl; try lia; [reflexivity|].
  cbn [map combine decode_handles].
  destruct (Hb h (or_introl eq_refl)) as [H1 H2]. rewrite (decode_encode_bh h H1 H2).
  assert (E : beq (encode_bh h) (encode_bh h) = true) by (apply beq_eq; reflexivity). rewrite E.
  rewrite IH; [reflexivity | lia | intros h' Hh'; apply Hb; right; exact Hh'].
Qed.

Lemma map_fst_combine {A B} (a : list A) : forall (b : list B), length a = length b -> map fst (combine a b) = a.
Proof.
  induction a as [|x a IH]; intros [|y b] Hl; cbn [length] in Hl; try lia; [reflexivity|].
  cbn [combine map fst]. f_equal. apply IH. lia.
Qed.

Lemma fetch_all_exact rd ri : forall (hs : list bhandle) (bl : list (list (bytes * bytes))), length hs = length bl -> 1 <= ri ->
  (forall j, (j < length bl)%nat -> tr_fetch rd (nth j hs bh0) = Ok (built ri (nth j bl [])) /\
                                   lenN (block_build ri (nth j bl [])) < 2 ^ 32) ->
  fetch_all rd hs = Some bl.
Proof.
  induction hs as [|h hs IH]; intros [|b bl] Hl Hri H; cbn [length] in Hl; try lia; [reflexivity|].
  cbn [fetch_all]. destruct (H 0%nat ltac:(cbn; lia)) as [E0 S0]. cbn [nth] in E0, S0.
  rewrite E0, (block_entries_built ri b Hri S0).
  rewrite (IH bl); [reflexivity | lia | exact Hri |].
  intros j Hj. apply (H (S j)). cbn [length]. lia.
Qed.

Theorem exact_check c rd ri bl seps hs : comparer_ok c -> 1 <= ri ->
  table_wf c rd bl seps hs ->
  tr_index rd = Ok (built 1 (ientries seps hs)) -> lenN (block_build 1 (ientries seps hs)) < 2 ^ 32 ->
  (forall j, (j < length bl)%nat -> tr_fetch rd (nth j hs bh0) = Ok (built ri (nth j bl [])) /\
                                   lenN (block_build ri (nth j bl [])) < 2 ^ 32) ->
  table_parse rd = Some (bl, seps, hs) /\ table_wfb c rd ri bl seps hs = true.
Proof.
  intros Hc Hri W Hidx Hisz Hf.
  pose proof (twf_len_s _ _ _ _ _ W) as Ls. pose proof (twf_len_h _ _ _ _ _ W) as Lh.
  assert (Hb : forall h, In h hs -> bh_off h < 2 ^ 64 /\ bh_len h < 2 ^ 64).
  { intros h Hin. destruct (In_nth _ _ bh0 Hin) as (j & Hj & <-). apply (twf_handles _ _ _ _ _ W). lia. }
  split.
  - unfold table_parse. rewrite Hidx, (block_entries_built 1 _ ltac:(lia) Hisz).
    unfold ientries. rewrite (decode_handles_combine seps hs ltac:(lia) Hb).
    rewrite (fetch_all_exact rd ri hs bl ltac:(lia) Hri Hf). cbn [option_map].
    rewrite map_fst_combine by (rewrite map_length; lia). reflexivity.
  - unfold table_wfb. rewrite Ls, Lh, !Nat.eqb_refl. cbn [andb].
    pose proof (twf_m _ _ _ _ _ W) as Hm. replace (Nat.ltb 0 (length bl)) with true by (symmetry; apply Nat.ltb_lt; exact Hm).
    replace (1 <=? ri) with true by lia. cbn [andb].
    rewrite Hidx. fold (ientries seps hs). rewrite (is_built_built 1 _ ltac:(lia) Hisz). cbn [andb].
    apply andb_true_intro. split; [apply andb_true_intro; split|].
    + apply forallb_forall. intros j Hj. apply in_seq in Hj. assert (Hjm : (j < length bl)%nat) by lia.
      destruct (Hf j Hjm) as [E Sz]. change bh_zero with bh0. rewrite E, (is_built_built ri _ Hri Sz).
      destruct (twf_handles _ _ _ _ _ W j Hjm) as [B1 B2]. change two64 with (2 ^ 64).
      replace (bh_off (nth j hs bh0) <? 2 ^ 64) with true by lia.
      replace (bh_len (nth j hs bh0) <? 2 ^ 64) with true by lia. cbn [andb].
      repeat (apply andb_true_intro; split).
      * apply forallb_forall. intros x Hx. unfold Order.leb.
        pose proof (twf_sep_ge _ _ _ _ _ W j x Hjm Hx) as G. destruct (cmp c (fst x) (nth j seps [])); congruence.
      * apply forallb_forall. intros x Hx. unfold Order.ltb.
        destruct (Nat.lt_ge_cases (S j) (length bl)) as [L|L].
        -- rewrite (twf_sep_lt _ _ _ _ _ W j x L Hx). reflexivity.
        -- rewrite nth_overflow in Hx by lia. destruct Hx.
      * destruct (Nat.ltb (S j) (length bl)) eqn:L; [|reflexivity]. apply Nat.ltb_lt in L.
        pose proof (twf_off_mono _ _ _ _ _ W j (S j) ltac:(lia) L). lia.
      * pose proof (twf_data_end _ _ _ _ _ W j Hjm). lia.
    + apply sortedb_complete. exact (twf_sorted _ _ _ _ _ W).
    + destruct (twf_blocks_ne _ _ _ _ _ W) as [H|H].
      * apply orb_true_intro. left. apply forallb_forall. intros b Hb'.
        destruct (In_nth _ _ [] Hb') as (j & Hj & <-). specialize (H j Hj). destruct (nth j bl []); [congruence|reflexivity].
      * apply orb_true_intro. right. rewrite H. reflexivity.
Qed.
