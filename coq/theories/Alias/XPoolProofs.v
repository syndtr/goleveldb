(* Alias/XPoolProofs.v — the buffer manager of Alias/XModel.v (heap, util.BufferPool of Base/UBuffer.v, block cache):
   what Get / Put / readRawBlock / readBlockCached / the death of a cache node / a release do to the owner tags, to
   the contents and to the three populations (pooled slices, cache nodes, everything else).  Used by
   Alias/XInvProofs.v. *)
From Coq Require Import List Bool Arith Lia Permutation.
From GL Require Import Alias.Heap Alias.HeapProofs Alias.AliasModel Alias.XModel.
From GL Require Mem.ListLemmas.
From GL Require Base.UBuffer.
Import ListNotations.
Local Open Scope nat_scope.

Lemma split_cls (cls : list (list UBuffer.pbuf)) : forall c, c < length cls ->
  exists A B, cls = A ++ nth c cls [] :: B /\ forall x, UBuffer.set_nth_cls cls c x = A ++ x :: B.
Proof.
  induction cls as [|y cls IH]; intros c H; simpl in H; [lia|]. destruct c.
  - exists [], cls. split; reflexivity.
  - destruct (IH c) as (A & B & E1 & E2); [lia|]. exists (y :: A), B. split.
    + simpl. f_equal. exact E1.
    + intros x. simpl. f_equal. apply E2.
Qed.

Lemma set_nth_cls_overflow (cls : list (list UBuffer.pbuf)) : forall c x, length cls <= c -> UBuffer.set_nth_cls cls c x = cls.
Proof.
  induction cls as [|y cls IH]; intros c x H; simpl; auto. destruct c; simpl in H; [lia|]. f_equal. apply IH. lia.
Qed.

Lemma remove_nth_perm {A} (l : list A) : forall i x, nth_error l i = Some x -> Permutation l (x :: UBuffer.remove_nth l i).
Proof.
  induction l as [|y l IH]; intros i x H; destruct i; simpl in *; try discriminate.
  - inversion H; subst. reflexivity.
  - rewrite (IH i x H) at 1. apply perm_swap.
Qed.

Lemma remove_nth_none {A} (l : list A) : forall i, nth_error l i = None -> UBuffer.remove_nth l i = l.
Proof.
  induction l as [|y l IH]; intros i H; destruct i; simpl in *; try discriminate; auto. f_equal. auto.
Qed.

Lemma pool_ids_set p c x : c < length (UBuffer.bp_cls p) ->
  exists A B, pool_ids p = A ++ map fst (nth c (UBuffer.bp_cls p) []) ++ B /\
              pool_ids (UBuffer.BP (UBuffer.bp_base p) (UBuffer.set_nth_cls (UBuffer.bp_cls p) c x)) = A ++ map fst x ++ B.
Proof.
  intros H. destruct (split_cls _ _ H) as (A & B & E1 & E2).
  exists (map fst (concat A)), (map fst (concat B)). unfold pool_ids. cbn [UBuffer.bp_cls]. split.
  - rewrite E1 at 1. rewrite concat_app. simpl. rewrite !map_app. reflexivity.
  - rewrite E2. rewrite concat_app. simpl. rewrite !map_app. reflexivity.
Qed.

(* [removed] left the pool *)
Definition pool_shrinks (p p' : UBuffer.bpool) (removed : list loc) : Prop :=
  Permutation (pool_ids p) (removed ++ pool_ids p').

Lemma pool_drop_shrinks p c i :
  exists r, pool_shrinks p (UBuffer.BP (UBuffer.bp_base p)
                              (UBuffer.set_nth_cls (UBuffer.bp_cls p) c (UBuffer.remove_nth (nth c (UBuffer.bp_cls p) []) i))) r.
Proof.
  unfold pool_shrinks.
  destruct (Nat.lt_ge_cases c (length (UBuffer.bp_cls p))) as [H|H].
  - destruct (pool_ids_set p c (UBuffer.remove_nth (nth c (UBuffer.bp_cls p) []) i) H) as (A & B & E1 & E2).
    rewrite E1, E2. destruct (nth_error (nth c (UBuffer.bp_cls p) []) i) as [x|] eqn:En.
    + exists [fst x]. rewrite (remove_nth_perm _ _ _ En) at 1. simpl. symmetry. apply Permutation_middle.
    + exists []. rewrite (remove_nth_none _ _ En). reflexivity.
  - exists []. rewrite set_nth_cls_overflow by auto. simpl. destruct p; reflexivity.
Qed.

(* Get: a reused slice left the pool; otherwise at most the slice that was too small did *)
Lemma bp_get_shrinks p n pick fresh :
  exists r, pool_shrinks p (fst (UBuffer.bp_get p n pick fresh)) r /\
            (UBuffer.pg_reused (snd (UBuffer.bp_get p n pick fresh)) = true ->
             r = [UBuffer.pg_id (snd (UBuffer.bp_get p n pick fresh))]) /\
            (UBuffer.pg_reused (snd (UBuffer.bp_get p n pick fresh)) = false ->
             UBuffer.pg_id (snd (UBuffer.bp_get p n pick fresh)) = fresh).
Proof.
  unfold UBuffer.bp_get. set (c := UBuffer.pool_num (UBuffer.bp_base p) n).
  assert (Hsame : pool_shrinks p p []) by (unfold pool_shrinks; reflexivity).
  destruct pick as [i|]; [|exists []; cbn; repeat split; auto; discriminate].
  destruct (nth_error (nth c (UBuffer.bp_cls p) []) i) as [[id cp]|] eqn:En;
    [|exists []; cbn; repeat split; auto; discriminate].
  assert (Hc : c < length (UBuffer.bp_cls p)).
  { destruct (Nat.lt_ge_cases c (length (UBuffer.bp_cls p))); auto. rewrite nth_overflow in En by auto. destruct i; discriminate. }
  assert (Hrem : pool_shrinks p (UBuffer.BP (UBuffer.bp_base p) (UBuffer.set_nth_cls (UBuffer.bp_cls p) c
                                   (UBuffer.remove_nth (nth c (UBuffer.bp_cls p) []) i))) [id]).
  { unfold pool_shrinks. destruct (pool_ids_set p c (UBuffer.remove_nth (nth c (UBuffer.bp_cls p) []) i) Hc) as (A & B & E1 & E2).
    rewrite E1, E2. rewrite (remove_nth_perm _ _ _ En) at 1. simpl. symmetry. apply Permutation_middle. }
  exists [id]. destruct (N.eqb cp 0); [cbn; repeat split; auto; discriminate|].
  destruct (N.leb n cp); cbn; repeat split; auto; discriminate.
Qed.

(* Put: the slice joins the pool (or is lost when its class does not exist) *)
Lemma bp_put_ids p l cp :
  Permutation (pool_ids (UBuffer.bp_put p (l, cp))) (l :: pool_ids p) \/ pool_ids (UBuffer.bp_put p (l, cp)) = pool_ids p.
Proof.
  unfold UBuffer.bp_put. cbn [snd]. set (c := UBuffer.pool_num (UBuffer.bp_base p) cp).
  destruct (Nat.lt_ge_cases c (length (UBuffer.bp_cls p))) as [H|H].
  - left. destruct (pool_ids_set p c ((l, cp) :: nth c (UBuffer.bp_cls p) []) H) as (A & B & E1 & E2).
    rewrite E1. etransitivity; [apply Permutation_refl'; exact E2|]. simpl. symmetry. apply Permutation_middle.
  - right. rewrite set_nth_cls_overflow by auto. destruct p; reflexivity.
Qed.

Lemma shrinks_nodup p p' r : pool_shrinks p p' r -> NoDup (pool_ids p) -> NoDup (pool_ids p') /\ NoDup r /\
  (forall l, In l r -> ~ In l (pool_ids p')) /\ (forall l, In l (pool_ids p') -> In l (pool_ids p)) /\
  (forall l, In l r -> In l (pool_ids p)).
Proof.
  unfold pool_shrinks. intros P N. pose proof (Permutation_NoDup P N) as N'.
  destruct (proj1 (ListLemmas.NoDup_app_iff _ _) N') as (Nr & Np & Hd).
  split; auto. split; auto. split; [|split].
  - auto.
  - intros l Hl. eapply Permutation_in; [symmetry; eauto|]. apply in_or_app. auto.
  - intros l Hl. eapply Permutation_in; [symmetry; eauto|]. apply in_or_app. auto.
Qed.

Definition tag (b : bm) (l : loc) : option owner := hown (bh b) l.
Definition cont (b : bm) (l : loc) : bytes := hget (bh b) l.

Lemma tag_bm_hp b h l : tag (bm_hp b h) l = hown h l.
Proof. reflexivity. Qed.
Lemma tag_bm_cache b ca l : tag (bm_cache b ca) l = tag b l.
Proof. reflexivity. Qed.
Lemma cont_bm_hp b h l : cont (bm_hp b h) l = hget h l.
Proof. reflexivity. Qed.
Lemma cont_bm_cache b ca l : cont (bm_cache b ca) l = cont b l.
Proof. reflexivity. Qed.

Record BInv (b : bm) : Prop := {
  bi_pool : forall l, In l (pool_ids (bpl b)) -> tag b l = Some Pool;
  bi_cache : forall n, In n (bca b) -> tag b (n_loc n) = Some Cache;
  bi_nd_pool : NoDup (pool_ids (bpl b));
  bi_nd_cache : NoDup (map n_loc (bca b))
}.

(* b' differs from b in the tags of the locations in X at most; nothing shrinks *)
Definition tags_kept (b b' : bm) (X : loc -> Prop) : Prop :=
  length (bh b) <= length (bh b') /\ forall l, l < length (bh b) -> ~ X l -> tag b' l = tag b l.
Definition conts_kept (b b' : bm) (X : loc -> Prop) : Prop :=
  forall l, l < length (bh b) -> ~ X l -> cont b' l = cont b l.

Lemma tag_lt b l o : tag b l = Some o -> l < length (bh b).
Proof. apply hown_lt. Qed.

Lemma tags_kept_refl b X : tags_kept b b X.
Proof. split; auto. Qed.

Lemma tags_kept_trans b1 b2 b3 (X Y Z : loc -> Prop) :
  tags_kept b1 b2 X -> tags_kept b2 b3 Y -> (forall l, l < length (bh b1) -> X l \/ Y l -> Z l) -> tags_kept b1 b3 Z.
Proof.
  intros [L1 H1] [L2 H2] HZ. split; [lia|]. intros l Hl Hn.
  rewrite H2; [apply H1; auto|lia|]; intros Hx; apply Hn; apply HZ; auto.
Qed.

Lemma conts_kept_trans b1 b2 b3 (X Y Z : loc -> Prop) :
  length (bh b1) <= length (bh b2) ->
  conts_kept b1 b2 X -> conts_kept b2 b3 Y -> (forall l, l < length (bh b1) -> X l \/ Y l -> Z l) -> conts_kept b1 b3 Z.
Proof.
  intros L1 H1 H2 HZ l Hl Hn.
  rewrite H2; [apply H1; auto|lia|]; intros Hx; apply Hn; apply HZ; auto.
Qed.

Lemma bm_alloc_spec b x o : let b' := fst (bm_alloc b x o) in let l := snd (bm_alloc b x o) in
  l = length (bh b) /\ length (bh b') = S (length (bh b)) /\ tag b' l = Some o /\ cont b' l = x /\
  bpl b' = bpl b /\ bca b' = bca b /\
  (forall l', l' < length (bh b) -> tag b' l' = tag b l' /\ cont b' l' = cont b l').
Proof.
  unfold bm_alloc, tag, cont. cbn [fst snd bh bpl bca bm_hp]. repeat split; auto.
  - apply halloc_length.
  - apply hown_alloc_new.
  - apply hget_alloc_new.
  - apply hown_alloc_old; auto.
  - apply hget_alloc_old; auto.
Qed.

Lemma BInv_alloc b x o : BInv b -> BInv (fst (bm_alloc b x o)).
Proof.
  intros [H1 H2 H3 H4]. destruct (bm_alloc_spec b x o) as (_ & _ & _ & _ & Ep & Ec & Hold).
  constructor; rewrite ?Ep, ?Ec; auto.
  - intros l Hl. destruct (Hold l (tag_lt _ _ _ (H1 l Hl))) as [-> _]. auto.
  - intros n Hn. destruct (Hold (n_loc n) (tag_lt _ _ _ (H2 n Hn))) as [-> _]. auto.
Qed.

Lemma bpool_get_spec c b n pick : BInv b ->
  let b' := fst (bpool_get c b n pick) in let l := snd (bpool_get c b n pick) in
  BInv b' /\ tag b' l = Some (DB KBlock) /\ ~ In l (pool_ids (bpl b')) /\ bca b' = bca b /\
  (tag b l = Some Pool \/ l = length (bh b)) /\
  tags_kept b b' (fun x => x = l) /\ conts_kept b b' (fun _ => False) /\
  (forall x, In x (pool_ids (bpl b')) -> In x (pool_ids (bpl b))).
Proof.
  intros I. pose proof I as [H1 H2 H3 H4]. unfold bpool_get. destruct (pool_on c).
  - destruct (UBuffer.bp_get (bpl b) n pick (length (bh b))) as [p' g] eqn:Eg.
    destruct (bp_get_shrinks (bpl b) n pick (length (bh b))) as (r & Hs & Hr & Hf). rewrite Eg in Hs, Hr, Hf. cbn [fst snd] in *.
    destruct (shrinks_nodup _ _ _ Hs H3) as (N' & Nr & Hd & Hsub & Hrin).
    destruct (UBuffer.pg_reused g) eqn:Er; cbn [fst snd].
    + (* a pooled slice *)
      specialize (Hr eq_refl). subst r. set (l := UBuffer.pg_id g).
      assert (Hl : tag b l = Some Pool) by (apply H1; apply Hrin; left; auto).
      assert (Hlt : l < length (bh b)) by (eapply tag_lt; eauto).
      assert (Hnp : ~ In l (pool_ids p')) by (apply Hd; left; auto).
      split.
      { constructor; cbn [bh bpl bca bm_hp bm_pool]; auto.
        -- intros x Hx. rewrite tag_bm_hp. rewrite hown_hchown_other; [apply H1; auto|]. intros <-. auto.
        -- intros m Hm. rewrite tag_bm_hp. rewrite hown_hchown_other; [apply H2; auto|].
           intros E. specialize (H2 m Hm). unfold tag in *. rewrite <- E in H2. congruence. }
      unfold tag, cont. cbn [bh bpl bca bm_hp bm_pool]. repeat split; auto.
      * apply hown_hchown_same. auto.
      * cbn [bh bm_hp bm_pool]. rewrite hchown_length. auto.
      * intros x Hx Hn. rewrite tag_bm_hp. apply hown_hchown_other. auto.
      * intros x Hx _. rewrite cont_bm_hp. apply hget_hchown.
    + (* a new array *)
      specialize (Hf eq_refl).
      pose proof (bm_alloc_spec (bm_pool b p') [] (DB KBlock)) as (El & Elen & Et & Ec & Ep & Eca & Hold).
      cbn [bh bpl bca bm_pool] in *.
      assert (Ibp : BInv (bm_pool b p')).
      { constructor; cbn [bh bpl bca bm_pool]; auto. intros x Hx. apply (H1 x). auto. }
      split; [apply BInv_alloc; auto|]. repeat split; auto.
      * rewrite Ep. intros Hin. specialize (H1 _ (Hsub _ Hin)). apply tag_lt in H1. rewrite El in H1. lia.
      * rewrite Elen. lia.
      * intros x Hx _. apply Hold. auto.
      * intros x Hx _. apply Hold. auto.
  - pose proof (bm_alloc_spec b [] (DB KBlock)) as (El & Elen & Et & Ec & Ep & Eca & Hold).
    split; [apply BInv_alloc; auto|]. repeat split; auto.
    + rewrite Ep. intros Hin. specialize (H1 _ Hin). apply tag_lt in H1. rewrite El in H1. lia.
    + rewrite Elen. lia.
    + intros x Hx _. apply Hold. auto.
    + intros x Hx _. apply Hold. auto.
Qed.

(* bpool.Put of a buffer that is neither pooled nor cached *)
Lemma bpool_put_spec c b l : BInv b -> l < length (bh b) -> ~ In l (pool_ids (bpl b)) -> ~ In l (map n_loc (bca b)) ->
  let b' := bpool_put c b l in
  BInv b' /\ bca b' = bca b /\ length (bh b') = length (bh b) /\
  tags_kept b b' (fun x => x = l) /\ conts_kept b b' (fun _ => False) /\
  (forall x, In x (pool_ids (bpl b')) -> x = l \/ In x (pool_ids (bpl b))) /\
  (forall o, tag b' l = Some o -> is_client o = false \/ tag b l = Some o).
Proof.
  intros I Hlt Hnp Hnc. pose proof I as [H1 H2 H3 H4]. unfold bpool_put. destruct (pool_on c).
  - unfold tag, cont. cbn [bh bpl bca bm_hp bm_pool].
    assert (Hids : forall x, In x (pool_ids (UBuffer.bp_put (bpl b) (l, cap_of b l))) -> x = l \/ In x (pool_ids (bpl b))).
    { intros x Hx. destruct (bp_put_ids (bpl b) l (cap_of b l)) as [P|E].
      - apply (Permutation_in _ P) in Hx. destruct Hx; auto.
      - right. rewrite <- E. exact Hx. }
    split.
    { constructor; cbn [bh bpl bca bm_hp bm_pool]; auto.
      * intros x Hx. rewrite tag_bm_hp. destruct (Nat.eq_dec l x) as [<-|Hn].
        -- apply hown_hchown_same; auto.
        -- rewrite hown_hchown_other by auto. destruct (Hids x Hx); [congruence|]. apply H1; auto.
      * intros m Hm. rewrite tag_bm_hp. rewrite hown_hchown_other; [apply H2; auto|].
        intros E. apply Hnc. rewrite E. apply in_map. auto.
      * destruct (bp_put_ids (bpl b) l (cap_of b l)) as [P|E].
        -- eapply Permutation_NoDup; [symmetry; exact P|]. constructor; auto.
        -- eapply Permutation_NoDup; [apply Permutation_refl'; symmetry; exact E|]. auto. }
    repeat split; auto; unfold tag, cont; cbn [bh bpl bca bm_hp bm_pool].
    + apply hchown_length.
    + rewrite hchown_length. auto.
    + intros x Hx Hn. apply hown_hchown_other. auto.
    + intros x Hx _. apply hget_hchown.
    + intros o Ho. rewrite hown_hchown_same in Ho by auto. inversion Ho; subst. left. reflexivity.
  - split; auto. repeat split; auto.
Qed.

(* the contents of l are replaced *)
Lemma BInv_hset b l x : BInv b -> BInv (bm_hp b (hset (bh b) l x)).
Proof.
  intros [H1 H2 H3 H4]. constructor; cbn [bh bpl bca bm_hp]; auto.
  - intros y Hy. rewrite tag_bm_hp. rewrite hown_hset. apply H1; auto.
  - intros n Hn. rewrite tag_bm_hp. rewrite hown_hset. apply H2; auto.
Qed.

Lemma hset_tags b l x : tags_kept b (bm_hp b (hset (bh b) l x)) (fun _ => False).
Proof. split; cbn [bh bm_hp]; [rewrite hset_length; auto|]. intros y _ _. rewrite tag_bm_hp. apply hown_hset. Qed.

Lemma hset_conts b l x : conts_kept b (bm_hp b (hset (bh b) l x)) (fun y => y = l).
Proof. intros y _ Hn. rewrite cont_bm_hp. apply hget_hset_other. auto. Qed.

(* the locations the buffer manager may write to when it hands out a buffer: pooled ones and new ones *)
Definition was_pool_or_new (b : bm) (l : loc) : Prop := tag b l = Some Pool \/ length (bh b) <= l.

Lemma owner_dec (a b : option owner) : {a = b} + {a <> b}.
Proof. repeat decide equality. Qed.

Lemma classic_was b l : was_pool_or_new b l \/ ~ was_pool_or_new b l.
Proof.
  unfold was_pool_or_new. destruct (owner_dec (tag b l) (Some Pool)); [left; auto|].
  destruct (le_dec (length (bh b)) l); [left; auto|]. right. intros [|]; auto.
Qed.

Lemma not_was_pool b l o : tag b l = Some o -> o <> Pool -> ~ was_pool_or_new b l.
Proof. intros Ht Ho [H|H]; [congruence|]. apply tag_lt in Ht. lia. Qed.

Lemma was_mono b b' x : tags_kept b b' (was_pool_or_new b) -> was_pool_or_new b' x -> was_pool_or_new b x.
Proof.
  intros [L K] W. destruct (Nat.lt_ge_cases x (length (bh b))) as [Hlt|]; [|right; auto].
  destruct (classic_was b x) as [|N]; auto. destruct W as [W|W]; [|lia]. rewrite K in W by auto. left. exact W.
Qed.

(* a buffer from the pool, or a new one, receives img *)
Lemma get_fill_spec c b n pick img : BInv b ->
  let b1 := fst (bpool_get c b n pick) in let l := snd (bpool_get c b n pick) in
  let b2 := bm_hp b1 (hset (bh b1) l img) in
  BInv b2 /\ tag b2 l = Some (DB KBlock) /\ ~ In l (pool_ids (bpl b2)) /\ bca b2 = bca b /\ was_pool_or_new b l /\
  cont b2 l = img /\ tags_kept b b2 (was_pool_or_new b) /\ conts_kept b b2 (was_pool_or_new b) /\
  (forall x, In x (pool_ids (bpl b2)) -> In x (pool_ids (bpl b))).
Proof.
  intros I. pose proof (bpool_get_spec c b n pick I) as S1. cbv zeta in *.
  destruct (bpool_get c b n pick) as [b1 l]. cbn [fst snd] in *. destruct S1 as (I1 & T1 & N1 & C1 & O1 & K1 & Q1 & P1).
  assert (Wl : was_pool_or_new b l) by (destruct O1; [left; auto|right; lia]).
  assert (Lt1 : l < length (bh b1)) by (eapply tag_lt; eauto).
  split; [apply BInv_hset; auto|]. split; [rewrite tag_bm_hp, hown_hset; auto|]. split; [exact N1|]. split; [exact C1|].
  split; [exact Wl|]. split; [rewrite cont_bm_hp; apply hget_hset_same; auto|]. split; [|split; [|exact P1]].
  - eapply tags_kept_trans; [exact K1|apply hset_tags|]. intros x Hx H; destruct H as [H|H]; [subst; auto|contradiction].
  - eapply conts_kept_trans; [apply K1|exact Q1|apply hset_conts|]. intros x Hx H; destruct H as [H|H]; [contradiction|subst; auto].
Qed.

(* readRawBlock: the result is a private buffer holding the block; only pooled (or new) locations changed.  With
   compression the block goes through a second buffer and the first goes back to the pool. *)
Lemma read_raw_spec c b fb pk : BInv b ->
  let b' := fst (read_raw c b fb pk) in let l := snd (read_raw c b fb pk) in
  BInv b' /\ tag b' l = Some (DB KBlock) /\ ~ In l (pool_ids (bpl b')) /\ bca b' = bca b /\ was_pool_or_new b l /\
  cont b' l = fimg fb /\
  tags_kept b b' (was_pool_or_new b) /\ conts_kept b b' (was_pool_or_new b) /\
  (forall x, In x (pool_ids (bpl b')) -> was_pool_or_new b x).
Proof.
  intros I. unfold read_raw. set (n := N.of_nat (length (fimg fb) + 5)).
  pose proof (get_fill_spec c b n (fst pk) (fimg fb) I) as S2. cbv zeta in S2.
  destruct (bpool_get c b n (fst pk)) as [b1 l]. cbn [fst snd] in S2. set (b2 := bm_hp b1 (hset (bh b1) l (fimg fb))) in *.
  destruct S2 as (I2 & T2 & N2 & C2 & Wl & G2 & K2 & Q2 & P2).
  destruct (snappy c); cbn [fst snd].
  2:{ split; [exact I2|]. repeat split; auto; try apply K2. intros x Hx. left. apply (bi_pool _ I). auto. }
  pose proof (get_fill_spec c b2 n (snd pk) (fimg fb) I2) as S4. cbv zeta in S4.
  destruct (bpool_get c b2 n (snd pk)) as [b3 l2]. cbn [fst snd] in S4. set (b4 := bm_hp b3 (hset (bh b3) l2 (fimg fb))) in *.
  destruct S4 as (I4 & T4 & N4 & C4 & W4 & G4 & K4' & Q4' & P4).
  assert (Nl : ~ was_pool_or_new b2 l) by (eapply not_was_pool; eauto; discriminate).
  assert (Hne : l2 <> l) by (intros ->; auto).
  assert (Tl4 : tag b4 l = Some (DB KBlock)) by (destruct K4' as [_ K]; rewrite K; auto; eapply tag_lt; eauto).
  assert (Np4 : ~ In l (pool_ids (bpl b4))) by (intros Hin; apply N2; auto).
  assert (Nc4 : ~ In l (map n_loc (bca b4))).
  { rewrite C4. intros Hin. apply in_map_iff in Hin. destruct Hin as (m & Em & Hm).
    pose proof (bi_cache _ I2 m Hm) as Hc. rewrite Em in Hc. congruence. }
  pose proof (bpool_put_spec c b4 l I4 (tag_lt _ _ _ Tl4) Np4 Nc4) as (I5 & C5 & L5 & K5 & Q5 & P5 & _).
  assert (K4 : tags_kept b b4 (was_pool_or_new b)).
  { eapply tags_kept_trans; [exact K2|exact K4'|]. intros x Hx [H|H]; [auto|exact (was_mono b b2 x K2 H)]. }
  assert (Q4 : conts_kept b b4 (was_pool_or_new b)).
  { eapply conts_kept_trans; [apply K2|exact Q2|exact Q4'|]. intros x Hx [H|H]; [auto|exact (was_mono b b2 x K2 H)]. }
  assert (K6 : tags_kept b (bpool_put c b4 l) (was_pool_or_new b)).
  { eapply tags_kept_trans; [exact K4|exact K5|]. intros x Hx H; destruct H as [H|H]; [auto|subst; auto]. }
  cbn [fst snd]. split; [exact I5|]. repeat split; auto; try apply K6.
  - destruct K5 as [_ K5]. rewrite K5; auto. eapply tag_lt; eauto.
  - intros Hin. destruct (P5 _ Hin) as [E|Hin']; [congruence|auto].
  - rewrite C5, C4. exact C2.
  - exact (was_mono b b2 l2 K2 W4).
  - rewrite Q5; auto. eapply tag_lt; eauto.
  - eapply conts_kept_trans; [apply K4|exact Q4|exact Q5|]. intros x Hx H; destruct H as [H|H]; [auto|contradiction].
  - intros x Hx. destruct (P5 _ Hx) as [->|Hx']; [exact Wl|]. left. apply (bi_pool _ I). auto.
Qed.

Definition same_node (n n' : cnode) : Prop := n_loc n' = n_loc n /\ n_tid n' = n_tid n /\ n_bi n' = n_bi n.

Lemma same_node_refl n : same_node n n.
Proof. repeat split. Qed.

Lemma node_lookup_in c tid bi n : node_lookup c tid bi = Some n -> In n c /\ n_tid n = tid /\ n_bi n = bi.
Proof.
  induction c as [|m c IH]; simpl; [discriminate|].
  destruct (Nat.eqb (n_tid m) tid && Nat.eqb (n_bi m) bi) eqn:E.
  - intros H. inversion H; subst. apply andb_true_iff in E. destruct E as [E1 E2].
    apply Nat.eqb_eq in E1. apply Nat.eqb_eq in E2. auto.
  - intros H. destruct (IH H) as (? & ? & ?). auto.
Qed.

Lemma promote_locs c l : map n_loc (promote c l) = map n_loc c.
Proof. induction c as [|m c IH]; simpl; auto. destruct (Nat.eqb (n_loc m) l); simpl; [reflexivity|f_equal; auto]. Qed.

Lemma promote_fwd c l n : In n c -> exists n', In n' (promote c l) /\ same_node n n'.
Proof.
  induction c as [|m c IH]; simpl; [contradiction|]. intros [->|H].
  - destruct (Nat.eqb (n_loc n) l).
    + exists (set_lru n true). split; [left; auto|repeat split].
    + exists n. split; [left; auto|apply same_node_refl].
  - destruct (Nat.eqb (n_loc m) l).
    + exists n. split; [right; auto|apply same_node_refl].
    + destruct (IH H) as (n' & Hn' & S). exists n'. split; [right; auto|auto].
Qed.

Lemma promote_bwd c l n' : In n' (promote c l) -> exists n, In n c /\ same_node n n'.
Proof.
  induction c as [|m c IH]; simpl; [contradiction|]. destruct (Nat.eqb (n_loc m) l); simpl.
  - intros [<-|H]; [exists m; split; [left; auto|repeat split]|exists n'; split; [right; auto|apply same_node_refl]].
  - intros [<-|H]; [exists m; split; [left; auto|apply same_node_refl]|].
    destruct (IH H) as (n & Hn & S). exists n. split; [right; auto|auto].
Qed.

Lemma node_of_in c l n : node_of c l = Some n -> In n c /\ n_loc n = l.
Proof.
  induction c as [|m c IH]; simpl; [discriminate|]. destruct (Nat.eqb (n_loc m) l) eqn:E.
  - intros H. inversion H; subst. apply Nat.eqb_eq in E. auto.
  - intros H. destruct (IH H). auto.
Qed.

Lemma remove_node_sub c l n : In n (remove_node c l) -> In n c.
Proof.
  induction c as [|m c IH]; simpl; auto. destruct (Nat.eqb (n_loc m) l); simpl; auto. intros [->|H]; auto.
Qed.

Lemma remove_node_keeps c l n : In n c -> n_loc n <> l -> In n (remove_node c l).
Proof.
  induction c as [|m c IH]; simpl; auto. intros [->|H] Hn.
  - destruct (Nat.eqb (n_loc n) l) eqn:E; [apply Nat.eqb_eq in E; congruence|left; auto].
  - destruct (Nat.eqb (n_loc m) l); [auto|right; auto].
Qed.

Lemma remove_node_nodup c l : NoDup (map n_loc c) -> NoDup (map n_loc (remove_node c l)) /\ ~ In l (map n_loc (remove_node c l)).
Proof.
  induction c as [|m c IH]; simpl; intros N; [split; [constructor|auto]|]. inversion N; subst.
  destruct (Nat.eqb (n_loc m) l) eqn:E.
  - apply Nat.eqb_eq in E. subst. auto.
  - apply Nat.eqb_neq in E. destruct (IH H2) as [N' Hn]. split.
    + simpl. constructor; auto. intros Hin. apply H1. apply in_map_iff in Hin. destruct Hin as (x & Ex & Hx).
      apply in_map_iff. exists x. split; auto. eapply remove_node_sub; eauto.
    + simpl. intros [H|H]; auto.
Qed.

Lemma acquire_spec c b tid bi ofb pk : BInv b ->
  let b' := fst (acquire c b tid bi ofb pk) in
  BInv b' /\ tags_kept b b' (was_pool_or_new b) /\ conts_kept b b' (was_pool_or_new b) /\
  (forall n, In n (bca b) -> exists n', In n' (bca b') /\ same_node n n') /\
  (forall n', In n' (bca b') -> (exists n, In n (bca b) /\ same_node n n') \/ was_pool_or_new b (n_loc n')) /\
  (forall x, In x (pool_ids (bpl b')) -> In x (pool_ids (bpl b)) \/ was_pool_or_new b x) /\
  match snd (acquire c b tid bi ofb pk) with
  | None => True
  | Some h =>
      h_tid h = tid /\ h_bi h = bi /\
      match h_kind h with
      | HCache => exists n, In n (bca b') /\ n_loc n = h_loc h /\ n_tid n = tid /\ n_bi n = bi
      | HOwn => tag b' (h_loc h) = Some (DB KBlock) /\ ~ In (h_loc h) (pool_ids (bpl b')) /\
                was_pool_or_new b (h_loc h) /\ bca b' = bca b
      end /\
      exists fb, ofb = Some fb /\ (h_kind h = HOwn \/ node_lookup (bca b) tid bi = None -> cont b' (h_loc h) = fimg fb)
  end.
Proof.
  intros I. unfold acquire. destruct ofb as [fb|]; cbn [fst snd].
  2:{ split; auto. split; [apply tags_kept_refl|]. split; [intros x _ _; reflexivity|].
      split; [intros n Hn; exists n; split; auto; apply same_node_refl|].
      split; [intros n Hn; left; exists n; split; auto; apply same_node_refl|]. split; auto. }
  destruct (cache_on c).
  - destruct (node_lookup (bca b) tid bi) as [n|] eqn:En; cbn [fst snd].
    + (* a hit *)
      destruct (node_lookup_in _ _ _ _ En) as (Hin & Et & Eb).
      pose proof I as [H1 H2 H3 H4].
      split.
      { constructor; cbn [bh bpl bca bm_cache]; auto.
        - intros m Hm. destruct (promote_bwd _ _ _ Hm) as (m0 & Hm0 & (El & _)). unfold tag in *. cbn [bh bm_cache].
          rewrite El. apply H2. auto.
        - rewrite promote_locs. auto. }
      split; [split; auto|]. split; [intros x _ _; reflexivity|].
      split; [intros m Hm; cbn [bca bm_cache]; apply promote_fwd; auto|].
      split; [intros m Hm; cbn [bca bm_cache] in Hm; left; apply promote_bwd in Hm; auto|].
      split; [auto|]. cbn [h_tid h_bi h_loc h_kind]. repeat split; auto.
      * destruct (promote_fwd _ (n_loc n) _ Hin) as (n' & Hn' & (E1 & E2 & E3)). exists n'. cbn [bca bm_cache].
        repeat split; auto; congruence.
      * exists fb. split; auto. intros [H|H]; discriminate.
    + (* a miss: read and insert *)
      destruct (read_raw c b fb pk) as [b1 l] eqn:Er.
      pose proof (read_raw_spec c b fb pk I) as S. rewrite Er in S. cbn [fst snd] in S.
      destruct S as (I1 & T1 & N1 & C1 & W1 & Q1 & K1 & R1 & P1). cbn [fst snd].
      assert (Lt : l < length (bh b1)) by (eapply tag_lt; eauto).
      assert (Hnc : ~ In l (map n_loc (bca b1))).
      { intros Hin. apply in_map_iff in Hin. destruct Hin as (m & Em & Hm). pose proof (bi_cache _ I1 m Hm) as Hc.
        rewrite Em in Hc. congruence. }
      pose proof I1 as [H1 H2 H3 H4].
      split.
      { constructor; cbn [bh bpl bca bm_cache bm_hp]; auto.
        - intros x Hx. rewrite tag_bm_cache, tag_bm_hp. rewrite hown_hchown_other; [apply H1; auto|]. intros <-. auto.
        - intros m [<-|Hm]; unfold tag; cbn [bh bm_cache bm_hp n_loc].
          + apply hown_hchown_same. auto.
          + rewrite hown_hchown_other; [apply H2; auto|]. intros E. apply Hnc. rewrite E. apply in_map. auto.
        - simpl. constructor; auto. }
      split.
      { eapply tags_kept_trans; [exact K1| |].
        - split; [cbn [bh bm_cache bm_hp]; rewrite hchown_length; auto|].
          intros x Hx Hn. rewrite tag_bm_cache, tag_bm_hp. apply hown_hchown_other. exact Hn.
        - intros x Hx H; destruct H as [H|H]; [auto|subst; auto]. }
      split.
      { intros x Hx Hn. rewrite cont_bm_cache, cont_bm_hp. rewrite hget_hchown. apply R1; auto. }
      split; [intros m Hm; exists m; split; [right; rewrite C1; auto|apply same_node_refl]|].
      split.
      { intros m [<-|Hm]; [right; auto|left]. exists m. rewrite C1 in Hm. split; auto. apply same_node_refl. }
      split; [intros x Hx; right; apply P1; auto|].
      cbn [h_tid h_bi h_loc h_kind]. repeat split; auto.
      * eexists. split; [left; reflexivity|]. repeat split.
      * exists fb. split; auto. intros _. rewrite cont_bm_cache, cont_bm_hp. rewrite hget_hchown. auto.
  - destruct (read_raw c b fb pk) as [b1 l] eqn:Er.
    pose proof (read_raw_spec c b fb pk I) as S. rewrite Er in S. cbn [fst snd] in S.
    destruct S as (I1 & T1 & N1 & C1 & W1 & Q1 & K1 & R1 & P1). cbn [fst snd].
    split; auto. split; auto. split; auto.
    split; [intros m Hm; exists m; split; [rewrite C1; auto|apply same_node_refl]|].
    split; [intros m Hm; left; exists m; rewrite C1 in Hm; split; auto; apply same_node_refl|].
    split; [intros x Hx; right; apply P1; auto|].
    cbn [h_tid h_bi h_loc h_kind]. repeat split; auto.
    exists fb. split; auto.
Qed.

Lemma gc_node_spec c b held l : BInv b ->
  let b' := gc_node c b held l in
  BInv b' /\ tags_kept b b' (fun x => x = l) /\ conts_kept b b' (fun _ => False) /\ length (bh b') = length (bh b) /\
  (forall n, In n (bca b) -> n_loc n <> l -> In n (bca b')) /\ (forall n, In n (bca b') -> In n (bca b)) /\
  (held = true -> bca b' = bca b) /\
  (forall x, In x (pool_ids (bpl b')) -> x = l \/ In x (pool_ids (bpl b))) /\
  (forall o, tag b' l = Some o -> is_client o = false \/ tag b l = Some o).
Proof.
  intros I. unfold gc_node.
  assert (Same : BInv b /\ tags_kept b b (fun x => x = l) /\ conts_kept b b (fun _ => False) /\ length (bh b) = length (bh b) /\
    (forall n, In n (bca b) -> n_loc n <> l -> In n (bca b)) /\ (forall n, In n (bca b) -> In n (bca b)) /\
    (held = true -> bca b = bca b) /\
    (forall x, In x (pool_ids (bpl b)) -> x = l \/ In x (pool_ids (bpl b))) /\
    (forall o, tag b l = Some o -> is_client o = false \/ tag b l = Some o)).
  { split; auto. split; [apply tags_kept_refl|]. split; [intros x _ _; reflexivity|]. repeat split; auto. }
  destruct (node_of (bca b) l) as [n|] eqn:En; [|exact Same].
  destruct (n_lru n || held) eqn:Eh; [exact Same|].
  apply orb_false_iff in Eh. destruct Eh as [_ Eh]. subst held.
  destruct (node_of_in _ _ _ En) as [Hin El].
  pose proof I as [H1 H2 H3 H4].
  destruct (remove_node_nodup (bca b) l H4) as [N' Hnl].
  set (b1 := bm_cache b (remove_node (bca b) l)).
  assert (I1 : BInv b1).
  { constructor; cbn [bh bpl bca bm_cache b1]; auto. intros m Hm. apply (H2 m). eapply remove_node_sub; eauto. }
  assert (Lt : l < length (bh b1)).
  { cbn [bh bm_cache b1]. rewrite <- El. apply (tag_lt b _ Cache). apply (H2 n Hin). }
  assert (Hnp : ~ In l (pool_ids (bpl b1))).
  { cbn [bpl bm_cache b1]. intros Hp. specialize (H1 _ Hp). specialize (H2 _ Hin). rewrite El in H2. congruence. }
  pose proof (bpool_put_spec c b1 l I1 Lt Hnp Hnl) as (I2 & C2 & L2 & K2 & Q2 & P2 & O2).
  split; auto. split; [exact K2|]. split; [exact Q2|]. split; [exact L2|].
  split; [intros m Hm Hne; rewrite C2; cbn [bca bm_cache b1]; apply remove_node_keeps; auto|].
  split; [intros m Hm; rewrite C2 in Hm; cbn [bca bm_cache b1] in Hm; eapply remove_node_sub; eauto|].
  split; [discriminate|]. split; [exact P2|exact O2].
Qed.

Lemma release_hold_spec c b held h : BInv b -> (h_kind h = HOwn -> tag b (h_loc h) = Some (DB KBlock)) ->
  let b' := release_hold c b held h in let l := h_loc h in
  BInv b' /\ tags_kept b b' (fun x => x = l) /\ conts_kept b b' (fun _ => False) /\ length (bh b') = length (bh b) /\
  (forall n, In n (bca b) -> n_loc n <> l -> In n (bca b')) /\ (forall n, In n (bca b') -> In n (bca b)) /\
  (h_kind h = HCache -> held l = true -> bca b' = bca b) /\ (h_kind h = HOwn -> bca b' = bca b) /\
  (forall x, In x (pool_ids (bpl b')) -> x = l \/ In x (pool_ids (bpl b))) /\
  (forall o, tag b' l = Some o -> is_client o = false \/ tag b l = Some o).
Proof.
  intros I Ho. unfold release_hold. destruct (h_kind h) eqn:Ek.
  - pose proof (gc_node_spec c b (held (h_loc h)) (h_loc h) I) as (A1 & A2 & A3 & A4 & A5 & A6 & A7 & A8 & A9).
    split; auto. split; auto. split; auto. split; auto. split; auto. split; auto. split; auto. split; [discriminate|]. auto.
  - specialize (Ho eq_refl). pose proof I as [H1 H2 H3 H4].
    assert (Lt : h_loc h < length (bh b)) by (eapply tag_lt; eauto).
    assert (Hnp : ~ In (h_loc h) (pool_ids (bpl b))) by (intros Hp; specialize (H1 _ Hp); congruence).
    assert (Hnc : ~ In (h_loc h) (map n_loc (bca b))).
    { intros Hin. apply in_map_iff in Hin. destruct Hin as (m & Em & Hm). specialize (H2 m Hm). rewrite Em in H2. congruence. }
    pose proof (bpool_put_spec c b (h_loc h) I Lt Hnp Hnc) as (I2 & C2 & L2 & K2 & Q2 & P2 & O2).
    split; auto. split; auto. split; auto. split; auto.
    split; [intros m Hm _; rewrite C2; auto|]. split; [intros m Hm; rewrite C2 in Hm; auto|].
    split; [discriminate|]. split; auto.
Qed.

Lemma bpool_put_cont c b l y : cont (bpool_put c b l) y = cont b y.
Proof. unfold bpool_put. destruct (pool_on c); auto. rewrite cont_bm_hp. apply hget_hchown. Qed.

(* contents never change when a buffer changes hands *)
Lemma gc_node_cont c b held l y : cont (gc_node c b held l) y = cont b y.
Proof.
  unfold gc_node. destruct (node_of (bca b) l); auto. destruct (n_lru c0 || held); auto. rewrite bpool_put_cont. reflexivity.
Qed.
