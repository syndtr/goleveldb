(* Alias/BlockProofs.v — the block read path of the ownership model (buffer pool, block cache,
   table.Reader.find): what it leaves alone, what it re-establishes, what it returns. *)
From GL Require Import Alias.Heap Alias.AliasModel Alias.HeapProofs Alias.ContentProofs Alias.InvProofs.
From Coq Require Import Arith Lia.
Local Open Scope nat_scope.

Definition notpool (o : owner) : bool := negb (owner_eqb o Pool).

Lemma nonblock_notpool o : nonblock o = true -> notpool o = true.
Proof. destruct o as [| |[]| |]; simpl; auto. Qed.

Lemma keep_nonblock_of_notpool h h' : keep notpool h h' -> keep nonblock h h'.
Proof. apply keep_weaken. apply nonblock_notpool. Qed.

Lemma cache_ok_hp s h' :
  cache_ok s ->
  (forall l, In l (map snd (cache s)) -> hown h' l = hown (hp s) l /\ hget h' l = hget (hp s) l) ->
  cache_ok (set_hp s h').
Proof.
  intros [N C] H. split; auto. simpl. intros tid bi l Hin.
  destruct (C _ _ _ Hin) as [O [fb [F G]]].
  assert (In l (map snd (cache s))) as Hl by (apply in_map_iff; exists (tid, bi, l); auto).
  destruct (H _ Hl) as [E1 E2]. split.
  - unfold own. simpl. rewrite E1. auto.
  - exists fb. split; auto. simpl. rewrite E2. auto.
Qed.

Lemma pool_ok_hp s h' :
  pool_ok s -> (forall l, In l (pool s) -> hown h' l = hown (hp s) l) -> pool_ok (set_hp s h').
Proof.
  intros [N P] H. split; auto. simpl. intros l Hin. unfold own. simpl. rewrite H; auto. apply P; auto.
Qed.

Lemma blockinv_hp c s h' :
  blockinv c s ->
  (forall l o, own (hp s) l o -> o = Cache \/ o = Pool -> hown h' l = hown (hp s) l /\ hget h' l = hget (hp s) l) ->
  blockinv c (set_hp s h').
Proof.
  intros (C & P & E1 & E2) H. split; [|split; [|split]]; auto.
  - apply cache_ok_hp; auto. intros l Hl. apply in_map_iff in Hl as [[[tid bi] l'] [E Hin]]. simpl in E. subst l'.
    destruct C as [_ C]. destruct (C _ _ _ Hin) as [O _]. eapply H; eauto.
  - apply pool_ok_hp; auto. intros l Hl. destruct P as [_ P]. eapply H; eauto.
Qed.

Lemma blockinv_alloc c s b o : blockinv c s -> blockinv c (fst (alloc s b o)).
Proof.
  intros B. unfold alloc; simpl. apply blockinv_hp; auto.
  intros l o' O _. split; [apply hown_alloc_old|apply hget_alloc_old]; eapply own_lt; eauto.
Qed.

Lemma blockinv_hset c s l b o :
  blockinv c s -> own (hp s) l o -> o <> Cache -> o <> Pool -> blockinv c (set_hp s (hset (hp s) l b)).
Proof.
  intros B O N1 N2. apply blockinv_hp; auto. intros l' o' O' D. split.
  - apply hown_hset.
  - apply hget_hset_other. intros E. subst l'. assert (o = o') by (eapply own_fun; eauto). destruct D; congruence.
Qed.

Lemma blockinv_hchown c s l o o' :
  blockinv c s -> own (hp s) l o -> o <> Cache -> o <> Pool -> blockinv c (set_hp s (hchown (hp s) l o')).
Proof.
  intros B O N1 N2. apply blockinv_hp; auto. intros l' o2 O' D. split.
  - apply hown_hchown_other. intros E. subst l'. assert (o = o2) by (eapply own_fun; eauto). destruct D; congruence.
  - apply hget_hchown.
Qed.

(* the block-path functions change the state quietly (InvProofs.quiet): only block buffers, cache and pool move *)
Lemma quiet_set_hp s h' : keep nonblock (hp s) h' -> quiet s (set_hp s h').
Proof. intros K. constructor; auto. Qed.

Lemma quiet_alloc s b o : quiet s (fst (alloc s b o)).
Proof. unfold alloc; simpl. apply quiet_set_hp. apply keep_alloc. Qed.

Lemma pool_get_ok c s s1 l :
  blockinv c s -> pool_get c s = (s1, l) ->
  keep notpool (hp s) (hp s1) /\ quiet s s1 /\ blockinv c s1 /\ own (hp s1) l (DB KBlock) /\
  cache s1 = cache s /\ cvis s1 = cvis s /\ (forall l' o, own (hp s) l' o -> o <> Pool -> l' <> l).
Proof.
  intros B E. unfold pool_get in E.
  assert (forall b, alloc s b (DB KBlock) = (s1, l) ->
    keep notpool (hp s) (hp s1) /\ quiet s s1 /\ blockinv c s1 /\ own (hp s1) l (DB KBlock) /\
    cache s1 = cache s /\ cvis s1 = cvis s /\ (forall l' o, own (hp s) l' o -> o <> Pool -> l' <> l)) as HA.
  { intros b EA. unfold alloc in EA. injection EA as <- <-.
    pose proof (blockinv_alloc c s b (DB KBlock) B) as BA. unfold alloc in BA; simpl in BA.
    split; [apply keep_alloc|]. split; [apply (quiet_alloc s b (DB KBlock))|]. split; [exact BA|].
    split; [apply own_alloc_new|]. simpl. split; auto. split; auto. intros l' o O _. apply own_lt in O. lia. }
  destruct (pool_on c) eqn:EP; [|eapply HA; eauto].
  destruct (pool s) as [|l0 p'] eqn:Epool; [eapply HA; eauto|].
  injection E as <- <-. simpl.
  destruct B as (C & [PN PO] & E1 & E2). rewrite Epool in *.
  assert (own (hp s) l0 Pool) as O0 by (apply PO; simpl; auto).
  assert (keep notpool (hp s) (hchown (hp s) l0 (DB KBlock))) as K by (eapply keep_hchown; eauto).
  split; [exact K|]. split; [|split; [|split; [|split; [auto|split; [auto|]]]]].
  - constructor; auto. simpl. apply keep_nonblock_of_notpool; auto.
  - split; [|split; [|split]]; simpl.
    + apply (cache_ok_hp s); auto. intros l Hl. split; [|apply hget_hchown].
      apply hown_hchown_other. intros E. subst l.
      apply in_map_iff in Hl as [[[tid bi] l'] [E Hin]]. simpl in E. subst l'.
      destruct C as [_ C]. destruct (C _ _ _ Hin) as [O _].
      assert (Pool = Cache) by (eapply own_fun; eauto). discriminate.
    + inversion PN; subst. split; simpl; auto. intros l Hl. simpl.
      apply own_hchown_other; [intros E; subst l; contradiction|apply PO; simpl; auto].
    + auto.
    + intros H. congruence.
  - simpl. eapply own_hchown_same; eauto.
  - intros l' o O N E. subst l'. apply N. eapply own_fun; eauto.
Qed.

Lemma pool_put_ok c s l :
  blockinv c s -> own (hp s) l (DB KBlock) ->
  quiet s (pool_put c s l) /\ blockinv c (pool_put c s l) /\ cache (pool_put c s l) = cache s /\ cvis (pool_put c s l) = cvis s
  /\ keep (fun o => negb (owner_eqb o (DB KBlock))) (hp s) (hp (pool_put c s l)).
Proof.
  intros B O. unfold pool_put. destruct (pool_on c) eqn:EP.
  - assert (keep (fun o => negb (owner_eqb o (DB KBlock))) (hp s) (hchown (hp s) l Pool)) as K by (eapply keep_hchown; eauto).
    assert (keep nonblock (hp s) (hchown (hp s) l Pool)) as Kn by (eapply keep_hchown; eauto).
    split; [constructor; auto|].
    split; [|split; [reflexivity|split; [reflexivity|exact K]]].
    destruct B as ([CN CC] & [PN PO] & E1 & E2).
    split; [|split; [|split]]; simpl.
    + split; simpl; auto. intros tid bi l' Hin. destruct (CC _ _ _ Hin) as [O' [fb [F G]]]. split.
      * simpl. eapply own_hchown_diff; eauto. discriminate.
      * exists fb. split; auto. simpl. rewrite hget_hchown; auto.
    + split; simpl.
      * constructor; auto. intros Hin. assert (DB KBlock = Pool) by (eapply own_fun; eauto). discriminate.
      * intros l' [<-|Hin].
        -- simpl. eapply own_hchown_same; eauto.
        -- simpl. eapply own_hchown_diff; eauto. discriminate.
    + auto.
    + intros H. congruence.
  - split; [apply quiet_refl|]. split; [auto|]. split; [auto|]. split; [auto|apply keep_refl].
Qed.

Lemma pool_put_other c s l l' : l' <> l ->
  hown (hp (pool_put c s l)) l' = hown (hp s) l' /\ hget (hp (pool_put c s l)) l' = hget (hp s) l'.
Proof.
  intros N. unfold pool_put. destruct (pool_on c); simpl; auto. split; [apply hown_hchown_other; auto|apply hget_hchown].
Qed.

(* readRawBlock: a buffer from the pool, or a new one, receives the block; the cells that belong to others stay *)
Lemma read_raw_ok c s s1 l img :
  blockinv c s -> pool_get c s = (s1, l) ->
  let s2 := set_hp s1 (hset (hp s1) l img) in
  quiet s s2 /\ blockinv c s2 /\ cvis s2 = cvis s /\ cache s2 = cache s /\
  own (hp s2) l (DB KBlock) /\ hget (hp s2) l = img /\
  (forall l' o, own (hp s) l' o -> o <> Pool -> l' <> l /\ own (hp s2) l' o).
Proof.
  intros B E. destruct (pool_get_ok _ _ _ _ B E) as (K & Q & B1 & O & C & V & N). cbv zeta.
  split; [eapply quiet_trans; [exact Q|]; apply quiet_set_hp; eapply keep_hset; eauto|].
  split; [eapply blockinv_hset; eauto; discriminate|]. split; [exact V|]. split; [exact C|].
  split; [apply own_hset; auto|]. split; [simpl; apply hget_hset_same; eapply own_lt; eauto|].
  intros l' o O' No. split; [eapply N; eauto|]. apply own_hset. eapply keep_own; eauto.
  destruct o as [| |[]| |]; auto; congruence.
Qed.

Lemma cache_lookup_in c tid bi l : cache_lookup c tid bi = Some l -> In (tid, bi, l) c.
Proof.
  induction c as [|[[t b] l'] c IH]; simpl; try discriminate.
  destruct (Nat.eqb t tid && Nat.eqb b bi) eqn:E.
  - intros H. injection H as <-. apply andb_prop in E as [E1 E2].
    apply Nat.eqb_eq in E1, E2. subst. auto.
  - auto.
Qed.

Lemma load_block_ok c s tid bi fb s1 l cached :
  blockinv c s -> file_block s tid bi = Some fb -> load_block c s tid bi fb = (s1, l, cached) ->
  quiet s s1 /\ blockinv c s1 /\ cvis s1 = cvis s /\ hget (hp s1) l = fimg fb /\
  (if cached then own (hp s1) l Cache /\ cache_on c = true else own (hp s1) l (DB KBlock) /\ cache_on c = false).
Proof.
  intros B F E. unfold load_block in E.
  destruct (cache_lookup (cache s) tid bi) as [l0|] eqn:EC.
  - injection E as <- <- <-. apply cache_lookup_in in EC.
    pose proof B as ([N C] & P & E1 & E2).
    destruct (C _ _ _ EC) as [O [fb' [F' G]]].
    split; [apply quiet_refl|]. split; [exact B|]. split; auto. split; [congruence|]. split; auto.
    destruct (cache_on c); auto. rewrite E1 in EC by auto. contradiction.
  - destruct (pool_get c s) as [sa la] eqn:EG. cbv zeta in E.
    destruct (read_raw_ok c s sa la (fimg fb) B EG) as (Q2 & B2 & V2 & C2 & O2 & G2 & _). cbv zeta in *.
    set (s2 := set_hp sa (hset (hp sa) la (fimg fb))) in *.
    (* the buffer the block ends up in *)
    assert (exists s3 lb, (if snappy c then
               let (sa0, l2) := pool_get c s2 in
               (pool_put c (set_hp sa0 (hset (hp sa0) l2 (fimg fb))) la, l2)
             else (s2, la)) = (s3, lb) /\
            quiet s s3 /\ blockinv c s3 /\ cvis s3 = cvis s /\ cache s3 = cache s /\
            own (hp s3) lb (DB KBlock) /\ hget (hp s3) lb = fimg fb) as (s3 & lb & E3 & Q & B3 & V & C3 & O3 & G3).
    { destruct (snappy c); [|exists s2, la; auto 8].
      destruct (pool_get c s2) as [sa0 l2] eqn:EG2.
      destruct (read_raw_ok c s2 sa0 l2 (fimg fb) B2 EG2) as (Qb & Bb & Vb & Cb & Ob & Gb & Nb). cbv zeta in *.
      destruct (Nb la _ O2 ltac:(discriminate)) as [Nl Osb].
      set (sb := set_hp sa0 (hset (hp sa0) l2 (fimg fb))) in *.
      destruct (pool_put_ok c sb la Bb Osb) as (Qp & Bp & Cp & Vp & _).
      destruct (pool_put_other c sb la l2 (not_eq_sym Nl)) as [Ho Hg].
      exists (pool_put c sb la), l2. split; auto.
      split; [eapply quiet_trans; [exact Q2|]; eapply quiet_trans; eauto|].
      split; [exact Bp|]. split; [congruence|]. split; [congruence|].
      split; [unfold own; rewrite Ho; exact Ob|rewrite Hg; exact Gb]. }
    rewrite E3 in E.
    destruct (cache_on c) eqn:ECo.
    + injection E as <- <- <-. simpl. split; [|split; [|split; [|split]]].
      * constructor; simpl; try apply Q. eapply keep_trans; [apply Q|]. eapply keep_hchown; eauto.
      * destruct B3 as ([CN CC] & [PN PO] & E1 & E2). split; [|split; [|split]]; simpl.
        -- split; simpl.
           ++ constructor; auto. intros Hin. apply in_map_iff in Hin as [[[t b] l'] [El Hin]]. simpl in El. subst l'.
              destruct (CC _ _ _ Hin) as [O' _]. pose proof (own_fun _ _ _ _ O3 O') as X. discriminate X.
           ++ intros t b l' [Hin|Hin].
              ** injection Hin as <- <- <-. split.
                 --- simpl. eapply own_hchown_same; eauto.
                 --- exists fb. split.
                     +++ change (file_block s3 tid bi = Some fb). rewrite (quiet_file_block _ _ _ _ Q). auto.
                     +++ simpl. rewrite hget_hchown. auto.
              ** destruct (CC _ _ _ Hin) as [O' [fb' [F' G']]]. split.
                 --- simpl. eapply own_hchown_diff; eauto. discriminate.
                 --- exists fb'. split; auto. simpl. rewrite hget_hchown. auto.
        -- split; simpl; auto. intros l' Hin. simpl. eapply own_hchown_diff; eauto. discriminate.
        -- intros H. congruence.
        -- auto.
      * auto.
      * rewrite hget_hchown. auto.
      * split; auto. simpl. eapply own_hchown_same; eauto.
    + injection E as <- <- <-. split; [exact Q|]. split; [exact B3|]. split; [exact V|]. split; [exact G3|]. split; auto.
Qed.

Lemma release_block_ok c s l (cached : bool) :
  blockinv c s -> (if cached then True else own (hp s) l (DB KBlock)) ->
  quiet s (release_block c s l cached) /\ blockinv c (release_block c s l cached)
  /\ cvis (release_block c s l cached) = cvis s
  /\ keep (fun o => negb (owner_eqb o (DB KBlock))) (hp s) (hp (release_block c s l cached)).
Proof.
  intros B O. unfold release_block. destruct cached.
  - split; [apply quiet_refl|]. split; [exact B|]. split; [auto|apply keep_refl].
  - destruct (pool_put_ok c s l B O) as (Q & B' & C & V & K). auto.
Qed.

Lemma blk_find_assoc b ds k :
  match blk_find b ds k with
  | Some d => assoc k (resolve b ds) = Some (dval b d)
  | None => assoc k (resolve b ds) = None
  end.
Proof.
  induction ds as [|d ds IH]; simpl; auto.
  destruct (beq (dkey b d) k); auto.
Qed.

Lemma tab_find_assoc t k : forall i,
  match tab_find t k i with
  | Some (bi, fb) => i <= bi /\ nth_error t (bi - i) = Some fb /\ assoc k (tab_content t) = assoc k (resolve (fimg fb) (fds fb))
                     /\ blk_find (fimg fb) (fds fb) k <> None
  | None => assoc k (tab_content t) = None
  end.
Proof.
  induction t as [|fb t IH]; intros i; simpl; auto.
  pose proof (blk_find_assoc (fimg fb) (fds fb) k) as HB.
  destruct (blk_find (fimg fb) (fds fb) k) as [d|] eqn:EB.
  - rewrite Nat.sub_diag. simpl. repeat split; auto.
    + unfold tab_content. simpl. rewrite assoc_app, HB. auto.
    + congruence.
  - specialize (IH (S i)). destruct (tab_find t k (S i)) as [[bi fb']|].
    + destruct IH as (L & N & A & NB). repeat split; auto; try lia.
      * replace (bi - i) with (S (bi - S i)) by lia. simpl. auto.
      * unfold tab_content in *. simpl. rewrite assoc_app, HB. auto.
    + unfold tab_content in *. simpl. rewrite assoc_app, HB. auto.
Qed.

(* find: the block of table tid that holds k, and the entry in it *)
Lemma tab_find_block s tid k :
  match nth_error (files s) tid with
  | None => assoc k (tab_file_content s tid) = None
  | Some t =>
      match tab_find t k 0 with
      | None => assoc k (tab_file_content s tid) = None
      | Some (bi, fb) => file_block s tid bi = Some fb /\
          exists d, blk_find (fimg fb) (fds fb) k = Some d /\ assoc k (tab_file_content s tid) = Some (dval (fimg fb) d)
      end
  end.
Proof.
  unfold tab_file_content, file_block. destruct (nth_error (files s) tid) as [t|]; auto.
  pose proof (tab_find_assoc t k 0) as HT. destruct (tab_find t k 0) as [[bi fb]|]; auto.
  destruct HT as (_ & HN & HA & HNB). rewrite Nat.sub_0_r in HN. split; auto.
  pose proof (blk_find_assoc (fimg fb) (fds fb) k) as HB. destruct (blk_find (fimg fb) (fds fb) k) as [d|]; [|congruence].
  exists d. split; auto. congruence.
Qed.

Lemma transfer_copy_ok c s r s1 r1 : blockinv c s -> transfer Copy s r Client = (s1, r1) ->
  quiet s s1 /\ blockinv c s1 /\ cvis s1 = cvis s /\ own (hp s1) (rloc r1) Client /\ deref (hp s1) r1 = deref (hp s) r /\
  (forall l o, own (hp s) l o -> own (hp s1) l o).
Proof.
  intros B E. unfold transfer, alloc in E. injection E as <- <-.
  split; [apply (quiet_alloc s _ Client)|]. split; [exact (blockinv_alloc c s _ Client B)|]. split; [reflexivity|].
  split; [apply own_alloc_new|]. split; [|intros l o O; apply own_alloc_old; auto].
  unfold deref at 1. cbn [rloc roff rlen mkref hp set_hp].
  change (hget _ (length (hp s))) with (hget (fst (halloc (hp s) (deref (hp s) r) Client)) (length (hp s))).
  rewrite hget_alloc_new. apply sub_all.
Qed.

(* what a lookup returned, read back through the heap *)
Definition res_val (h : heap) (r : option (option ref)) : option (option bytes) :=
  match r with
  | None => None
  | Some None => Some None
  | Some (Some v) => Some (Some (deref h v))
  end.

Definition res_client (h : heap) (r : option (option ref)) : Prop :=
  match r with Some (Some v) => own h (rloc v) Client | _ => True end.

Ltac split5 := split; [|split; [|split; [|split]]].

Lemma tab_get_ok c s tid k s' r :
  blockinv c s -> tab_get fixed_modes c s tid k = (s', r) ->
  quiet s s' /\ blockinv c s' /\ cvis s' = cvis s /\
  res_val (hp s') r = assoc k (tab_file_content s tid) /\ res_client (hp s') r.
Proof.
  intros B E. unfold tab_get in E. pose proof (tab_find_block s tid k) as HT.
  destruct (nth_error (files s) tid) as [t|]; [|injection E as <- <-; split5; simpl; auto; apply quiet_refl].
  destruct (tab_find t k 0) as [[bi fb]|]; [|injection E as <- <-; split5; simpl; auto; apply quiet_refl].
  destruct HT as (FB & d & EB & HA).
  destruct (load_block c s tid bi fb) as [[s1 l] cached] eqn:EL.
  destruct (load_block_ok _ _ _ _ _ _ _ _ B FB EL) as (Q1 & B1 & V1 & G1 & O1).
  rewrite G1, EB in E.
  assert (if cached then True else own (hp s1) l (DB KBlock)) as O1' by (destruct cached; tauto).
  destruct (isdel d) eqn:ED.
  - injection E as <- <-.
    destruct (release_block_ok c s1 l cached B1 O1') as (Q2 & B2 & V2 & K2).
    split5; simpl; auto.
    + eapply quiet_trans; eauto.
    + congruence.
    + rewrite HA. unfold dval. rewrite ED. auto.
  - unfold fixed_modes in E.
    destruct (pool_on c || cache_on c) eqn:EM.
    + (* the value is copied *)
      destruct (transfer Copy s1 (mkref l (voff d) (vlen d)) Client) as [s2 r2] eqn:ET.
      destruct (transfer_copy_ok c s1 _ s2 r2 B1 ET) as (Q2 & B2 & V2 & On & Dn & Ok).
      injection E as <- <-.
      assert (if cached then True else own (hp s2) l (DB KBlock)) as O2 by (destruct cached; auto; apply Ok; tauto).
      destruct (release_block_ok c s2 l cached B2 O2) as (Q3 & B3 & V3 & K3).
      split5; auto.
      * eapply quiet_trans; [exact Q1|]. eapply quiet_trans; eauto.
      * congruence.
      * simpl. rewrite HA. unfold dval. rewrite ED. f_equal. f_equal.
        unfold deref at 1. rewrite (keep_get _ _ _ _ _ K3 On) by auto. fold (deref (hp s2) r2). rewrite Dn.
        unfold deref. simpl. rewrite G1. auto.
      * simpl. eapply keep_own; eauto.
    + (* neither pooled nor cached: the slice of the fresh block is handed over *)
      apply orb_false_elim in EM as [EP EC].
      destruct cached.
      { destruct O1 as [_ O1]. congruence. }
      destruct O1 as [O1 _].
      simpl in E. rewrite EP in E.
      unfold release_block, pool_put in E. rewrite EP in E.
      injection E as <- <-.
      assert (blockinv c (set_hp s1 (hchown (hp s1) l Client))) as B2
        by (eapply blockinv_hchown; eauto; discriminate).
      split5; auto.
      * eapply quiet_trans; [exact Q1|]. apply quiet_set_hp. eapply keep_hchown; eauto.
      * simpl. rewrite HA. unfold dval. rewrite ED. unfold deref. simpl. rewrite hget_hchown, G1. auto.
      * simpl. eapply own_hchown_same; eauto.
Qed.
