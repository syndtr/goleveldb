(* Alias/ContentProofs.v — lemmas about the list-level functions of the ownership model:
   lookups (lookup_eq: two maps answer every lookup alike), dedupe, the table writer (tab_content: what a
   table's blocks hold), and the canonical merged view of iterators, canon: it commutes with maps over the
   values (pmap), and maps that answer alike have the same view (canon_lookup_eq). *)
From GL Require Import Alias.AliasModel Alias.HeapProofs Base.BytesProofs Codec.BytesCmpProofs.
From GL Require Mem.ListLemmas.
From Coq Require Import Lia Sorting.Sorted.
Local Open Scope nat_scope.

Definition lookup_eq (a b : amap) : Prop := forall k, glookup k a = glookup k b.

Lemma assoc_app {A} k (a b : list (bytes * A)) :
  assoc k (a ++ b) = match assoc k a with Some x => Some x | None => assoc k b end.
Proof.
  induction a as [|[k' x] a IH]; simpl; auto.
  destruct (beq k' k); auto.
Qed.

Lemma glookup_app k a b :
  glookup k (a ++ b) = match assoc k a with Some (Some v) => Some v | Some None => None | None => glookup k b end.
Proof.
  unfold glookup. rewrite assoc_app. destruct (assoc k a) as [[v|]|]; auto.
Qed.

Lemma lookup_eq_refl a : lookup_eq a a.
Proof. intros k; auto. Qed.

Lemma lookup_eq_trans a b c : lookup_eq a b -> lookup_eq b c -> lookup_eq a c.
Proof. intros H1 H2 k. rewrite H1; auto. Qed.

Lemma lookup_eq_sym a b : lookup_eq a b -> lookup_eq b a.
Proof. intros H k; auto. Qed.

Lemma lookup_eq_app_r a b b' : lookup_eq b b' -> lookup_eq (a ++ b) (a ++ b').
Proof. intros H k. rewrite !glookup_app. rewrite H. auto. Qed.

Lemma lookup_eq_cons e b b' : lookup_eq b b' -> lookup_eq (e :: b) (e :: b').
Proof. intros H. apply (lookup_eq_app_r [e]); auto. Qed.

Lemma assoc_filter_ne {A} k k0 (l : list (bytes * A)) :
  assoc k (filter (fun e => negb (beq (fst e) k0)) l) = if beq k0 k then None else assoc k l.
Proof.
  induction l as [|[k' a] l IH]; simpl.
  - destruct (beq k0 k); auto.
  - destruct (beq k' k0) eqn:E0; simpl.
    + apply beq_eq in E0. subst k'. rewrite IH. destruct (beq k0 k); auto.
    + rewrite IH. destruct (beq k' k) eqn:E1; auto.
      apply beq_eq in E1. subst k'. rewrite beq_sym, E0. auto.
Qed.

Lemma assoc_dedupe {A} k (l : list (bytes * A)) : assoc k (dedupe l) = assoc k l.
Proof.
  induction l as [|[k' a] l IH]; simpl; auto.
  destruct (beq k' k) eqn:E; auto.
  rewrite assoc_filter_ne, E. auto.
Qed.

Lemma glookup_filter_ne k k0 (l : amap) :
  glookup k (filter (fun e => negb (beq (fst e) k0)) l) = if beq k0 k then None else glookup k l.
Proof. unfold glookup. rewrite assoc_filter_ne. destruct (beq k0 k); auto. Qed.

Lemma drop_tomb_filter {A} (P : bytes * option A -> bool) l : drop_tomb (filter P l) = filter P (drop_tomb l).
Proof.
  unfold drop_tomb. induction l as [|x l IH]; simpl; auto.
  destruct (P x) eqn:EP; simpl; destruct (snd x); simpl; rewrite ?EP, ?IH; auto.
Qed.

Lemma glookup_drop_tomb_dedupe k (l : amap) : glookup k (drop_tomb (dedupe l)) = glookup k l.
Proof.
  induction l as [|[k' a] l IH].
  - reflexivity.
  - cbn [dedupe]. unfold drop_tomb at 1. cbn [filter snd].
    fold (@drop_tomb bytes (filter (fun e : bytes * option bytes => negb (beq (fst e) k')) (dedupe l))).
    rewrite drop_tomb_filter.
    destruct a as [v|].
    + unfold glookup at 1 2. cbn [assoc]. destruct (beq k' k) eqn:E; auto.
      fold (glookup k (filter (fun e : bytes * option bytes => negb (beq (fst e) k')) (drop_tomb (dedupe l)))).
      fold (glookup k l). rewrite glookup_filter_ne, E. auto.
    + rewrite glookup_filter_ne. unfold glookup at 2. cbn [assoc].
      destruct (beq k' k) eqn:E; auto.
Qed.

Lemma lookup_eq_drop_tomb_dedupe (l : amap) : lookup_eq (drop_tomb (dedupe l)) l.
Proof. intros k; apply glookup_drop_tomb_dedupe. Qed.

Definition tab_content (t : table) : amap := flat_map (fun fb => resolve (fimg fb) (fds fb)) t.

Lemma mk_block_from_ok es : forall p,
  resolve (p ++ snd (mk_block_from (length p) es)) (fst (mk_block_from (length p) es)) = es.
Proof.
  induction es as [|[k ov] es IH]; intros p; simpl; auto.
  destruct ov as [v|]; simpl.
  - destruct (mk_block_from (length p + length (k ++ v)) es) as [ds img] eqn:E. simpl.
    specialize (IH (p ++ k ++ v)). rewrite app_length in IH. rewrite E in IH. simpl in IH.
    rewrite <- !app_assoc in IH. rewrite <- !app_assoc.
    f_equal; auto.
    unfold dkey, dval; simpl. f_equal.
    + apply sub_prefix_app.
    + f_equal. replace (p ++ k ++ v ++ img) with ((p ++ k) ++ v ++ img) by (rewrite <- !app_assoc; auto).
      replace (length p + length k) with (length (p ++ k)) by (rewrite app_length; auto).
      apply sub_prefix_app.
  - destruct (mk_block_from (length p + length k) es) as [ds img] eqn:E. simpl.
    specialize (IH (p ++ k)). rewrite app_length in IH. rewrite E in IH. simpl in IH.
    rewrite <- !app_assoc in IH.
    f_equal; auto.
    unfold dkey, dval; simpl. f_equal. apply sub_prefix_app.
Qed.

Lemma mk_block_ok es : resolve (fimg (mk_block es)) (fds (mk_block es)) = es.
Proof. exact (mk_block_from_ok es []). Qed.

Lemma chunks_concat {A} n : forall fuel (l : list A), length l <= fuel -> concat (chunks n fuel l) = l.
Proof.
  induction fuel as [|f IH]; intros l H.
  - destruct l; simpl in *; auto; lia.
  - destruct l as [|x l]; auto.
    cbn [chunks concat]. rewrite IH.
    + apply firstn_skipn.
    + rewrite skipn_length. simpl in *. lia.
Qed.

Lemma build_table_ok n es : tab_content (build_table n es) = es.
Proof.
  unfold tab_content, build_table.
  rewrite flat_map_concat_map, map_map.
  rewrite (map_ext _ (fun x => x)) by (intros; apply mk_block_ok).
  rewrite map_id. apply chunks_concat; auto.
Qed.

Definition pmap {A B} (f : A -> B) (l : list (bytes * A)) : list (bytes * B) := map (fun x => (fst x, f (snd x))) l.

Lemma filter_pmap {A B} (f : A -> B) k (l : list (bytes * A)) :
  filter (fun e => negb (beq (fst e) k)) (pmap f l) = pmap f (filter (fun e => negb (beq (fst e) k)) l).
Proof.
  induction l as [|x l IH]; simpl; auto.
  destruct (negb (beq (fst x) k)); simpl; rewrite IH; auto.
Qed.

Lemma dedupe_pmap {A B} (f : A -> B) (l : list (bytes * A)) : dedupe (pmap f l) = pmap f (dedupe l).
Proof.
  induction l as [|[k a] l IH]; simpl; auto.
  rewrite IH, filter_pmap. auto.
Qed.

Lemma live_pmap {A B} (f : A -> B) (l : list (bytes * option A)) : live (pmap (option_map f) l) = pmap f (live l).
Proof.
  induction l as [|[k [a|]] l IH]; simpl; auto. rewrite IH; auto.
Qed.

Lemma insert_pmap {A B} (f : A -> B) x (l : list (bytes * A)) :
  insert_sorted (fst x, f (snd x)) (pmap f l) = pmap f (insert_sorted x l).
Proof.
  induction l as [|y l IH]; simpl; auto.
  destruct (bcompare (fst x) (fst y)); simpl; auto. rewrite IH; auto.
Qed.

Lemma sort_pmap {A B} (f : A -> B) (l : list (bytes * A)) : sort_keys (pmap f l) = pmap f (sort_keys l).
Proof.
  induction l as [|x l IH]; simpl; auto.
  unfold sort_keys in *. simpl. rewrite IH. apply insert_pmap.
Qed.

Lemma canon_pmap {A B} (f : A -> B) (l : list (bytes * option A)) :
  canon (pmap (option_map f) l) = pmap f (canon l).
Proof. unfold canon. rewrite dedupe_pmap, live_pmap, sort_pmap. auto. Qed.

Lemma pmap_pmap {A B C} (f : A -> B) (g : B -> C) (l : list (bytes * A)) : pmap g (pmap f l) = pmap (fun a => g (f a)) l.
Proof. unfold pmap. rewrite map_map. auto. Qed.

Lemma pmap_ext {A B} (f g : A -> B) (l : list (bytes * A)) :
  (forall x, In x l -> f (snd x) = g (snd x)) -> pmap f l = pmap g l.
Proof.
  intros H. unfold pmap. apply map_ext_in. intros x Hx. rewrite H; auto.
Qed.

Lemma map_fst_pmap {A B} (f : A -> B) (l : list (bytes * A)) : map fst (pmap f l) = map fst l.
Proof. unfold pmap. rewrite map_map. auto. Qed.

(* elements of the canonical view come from the input *)
Lemma in_filter_ne {A} k (x : bytes * A) l : In x (filter (fun e => negb (beq (fst e) k)) l) -> In x l.
Proof. intros H. apply filter_In in H. tauto. Qed.

Lemma in_dedupe {A} (x : bytes * A) l : In x (dedupe l) -> In x l.
Proof.
  induction l as [|[k a] l IH]; simpl; auto.
  intros [H|H]; auto. right. apply IH. eapply in_filter_ne; eauto.
Qed.

Lemma in_live {A} k (a : A) l : In (k, a) (live l) -> In (k, Some a) l.
Proof.
  induction l as [|[k' [a'|]] l IH]; simpl; auto.
  - intros [H|H]; [left; congruence|right; auto].
Qed.

Lemma in_insert {A} (x y : bytes * A) l : In y (insert_sorted x l) -> y = x \/ In y l.
Proof.
  induction l as [|z l IH]; simpl.
  - intros [H|[]]; auto.
  - destruct (bcompare (fst x) (fst z)); simpl; intros H.
    + destruct H as [H|H]; auto.
    + destruct H as [H|H]; auto.
    + destruct H as [H|H]; auto. apply IH in H. tauto.
Qed.

Lemma in_sort {A} (y : bytes * A) l : In y (sort_keys l) -> In y l.
Proof.
  induction l as [|x l IH]; simpl; auto.
  intros H. apply in_insert in H. destruct H; auto.
Qed.

Lemma in_canon {A} k (a : A) l : In (k, a) (canon l) -> In (k, Some a) l.
Proof. intros H. apply in_dedupe, in_live, in_sort. exact H. Qed.

Definition klt {A} (a b : bytes * A) : Prop := bcompare (fst a) (fst b) = Lt.

Lemma notin_filter_ne {A} k (l : list (bytes * A)) : ~ In k (map fst (filter (fun e => negb (beq (fst e) k)) l)).
Proof.
  intros H. apply in_map_iff in H as [x [E H]]. apply filter_In in H as [_ H].
  subst k. rewrite beq_refl in H. discriminate.
Qed.

Lemma nodup_dedupe {A} (l : list (bytes * A)) : NoDup (map fst (dedupe l)).
Proof.
  induction l as [|[k a] l IH]; simpl; constructor.
  - apply notin_filter_ne.
  - apply (ListLemmas.NoDup_map_filter fst); auto.
Qed.

Lemma map_fst_live_incl {A} (l : list (bytes * option A)) k : In k (map fst (live l)) -> In k (map fst l).
Proof.
  induction l as [|[k' [a|]] l IH]; simpl; auto.
  intros [H|H]; auto.
Qed.

Lemma nodup_live {A} (l : list (bytes * option A)) : NoDup (map fst l) -> NoDup (map fst (live l)).
Proof.
  induction l as [|[k [a|]] l IH]; simpl; auto; intros H; inversion H; subst; auto.
  constructor; auto. intros Hin. apply H2. apply map_fst_live_incl; auto.
Qed.

Lemma assoc_notin {A} k (l : list (bytes * A)) : ~ In k (map fst l) -> assoc k l = None.
Proof.
  induction l as [|[k' a] l IH]; simpl; auto.
  intros H. destruct (beq k' k) eqn:E.
  - apply beq_eq in E. subst. exfalso; apply H; auto.
  - apply IH. intros H'. apply H; auto.
Qed.

Lemma assoc_live k (l : amap) : NoDup (map fst l) -> assoc k (live l) = glookup k l.
Proof.
  unfold glookup. induction l as [|[k' [v|]] l IH]; simpl; auto; intros H; inversion H; subst.
  - destruct (beq k' k); auto.
  - destruct (beq k' k) eqn:E; auto.
    apply beq_eq in E. subst. apply assoc_notin. intros Hin. apply H2. apply map_fst_live_incl; auto.
Qed.

Lemma map_fst_insert {A} (x : bytes * A) l k : In k (map fst (insert_sorted x l)) <-> k = fst x \/ In k (map fst l).
Proof.
  induction l as [|y l IH]; simpl.
  - intuition congruence.
  - destruct (bcompare (fst x) (fst y)); simpl; intuition congruence.
Qed.

Lemma map_fst_sort {A} (l : list (bytes * A)) k : In k (map fst (sort_keys l)) <-> In k (map fst l).
Proof.
  induction l as [|x l IH]; simpl; try tauto.
  unfold sort_keys in *. simpl. pose proof (map_fst_insert x (fold_right insert_sorted [] l) k) as HI.
  split; intros H.
  - apply HI in H. destruct H as [H|H]; auto. right. apply IH; auto.
  - apply HI. destruct H as [H|H]; auto. right. apply IH; auto.
Qed.

Lemma assoc_insert {A} k (x : bytes * A) l :
  ~ In (fst x) (map fst l) -> assoc k (insert_sorted x l) = assoc k (x :: l).
Proof.
  induction l as [|y l IH]; intros H; auto.
  cbn [insert_sorted]. destruct (bcompare (fst x) (fst y)); auto.
  destruct x as [kx ax], y as [ky ay]. cbn [assoc fst] in *.
  rewrite IH by (intros H'; apply H; simpl; auto). cbn [assoc].
  destruct (beq ky k) eqn:E1; destruct (beq kx k) eqn:E2; auto.
  apply beq_eq in E1, E2. subst. exfalso. apply H. simpl; auto.
Qed.

Lemma assoc_sort {A} k (l : list (bytes * A)) : NoDup (map fst l) -> assoc k (sort_keys l) = assoc k l.
Proof.
  induction l as [|x l IH]; intros H; auto.
  inversion H; subst. unfold sort_keys in *. cbn [fold_right].
  rewrite assoc_insert.
  - destruct x as [kx ax]. cbn [assoc]. rewrite IH; auto.
  - intros Hin. change (fold_right insert_sorted [] l) with (sort_keys l) in Hin.
    apply (proj1 (map_fst_sort l (fst x))) in Hin. auto.
Qed.

Lemma assoc_canon k (l : amap) : assoc k (canon l) = glookup k l.
Proof.
  unfold canon. rewrite assoc_sort.
  - rewrite assoc_live by apply nodup_dedupe. unfold glookup. rewrite assoc_dedupe. auto.
  - apply nodup_live, nodup_dedupe.
Qed.

Lemma sorted_insert {A} (x : bytes * A) l :
  StronglySorted klt l -> ~ In (fst x) (map fst l) -> StronglySorted klt (insert_sorted x l).
Proof.
  induction l as [|y l IH]; intros Hs Hn; cbn [insert_sorted].
  - constructor; constructor.
  - inversion Hs as [|? ? Hs' Hall]; subst.
    destruct (bcompare (fst x) (fst y)) eqn:E.
    + apply bcompare_eq in E. exfalso. apply Hn. simpl; auto.
    + constructor; auto. constructor; auto.
      eapply Forall_impl; [|exact Hall]. intros z Hz. unfold klt in *. eapply bcompare_trans; eauto.
    + constructor.
      * apply IH; auto. intros H; apply Hn; simpl; auto.
      * apply Forall_forall. intros z Hz. apply in_insert in Hz as [->|Hz].
        -- unfold klt. rewrite bcompare_opp, E. auto.
        -- eapply Forall_forall in Hall; eauto.
Qed.

Lemma sorted_sort {A} (l : list (bytes * A)) : NoDup (map fst l) -> StronglySorted klt (sort_keys l).
Proof.
  induction l as [|x l IH]; intros H.
  - constructor.
  - inversion H; subst. unfold sort_keys in *. cbn [fold_right]. apply sorted_insert; auto.
    intros Hin. change (fold_right insert_sorted [] l) with (sort_keys l) in Hin.
    apply (proj1 (map_fst_sort l (fst x))) in Hin. auto.
Qed.

Lemma sorted_canon {A} (l : list (bytes * option A)) : StronglySorted klt (canon l).
Proof. apply sorted_sort, nodup_live, nodup_dedupe. Qed.

Lemma bcompare_refl a : bcompare a a = Eq.
Proof. apply bcompare_eq; auto. Qed.

Lemma assoc_none_above {A} (x : bytes * A) l k :
  Forall (klt x) l -> bcompare k (fst x) <> Gt -> assoc k l = None.
Proof.
  intros Hall Hk. apply assoc_notin. intros Hin.
  apply in_map_iff in Hin as [y [E Hy]]. eapply Forall_forall in Hall; eauto. unfold klt in Hall. subst k.
  destruct (bcompare (fst y) (fst x)) eqn:E1.
  - apply bcompare_eq in E1. rewrite E1, bcompare_refl in Hall. discriminate.
  - assert (bcompare (fst x) (fst x) = Lt) by (eapply bcompare_trans; eauto). rewrite bcompare_refl in H. discriminate.
  - congruence.
Qed.

Lemma sorted_ext {A} (l1 l2 : list (bytes * A)) :
  StronglySorted klt l1 -> StronglySorted klt l2 -> (forall k, assoc k l1 = assoc k l2) -> l1 = l2.
Proof.
  revert l2. induction l1 as [|[k1 a1] l1 IH]; intros [|[k2 a2] l2] H1 H2 He; auto.
  - specialize (He k2). simpl in He. rewrite beq_refl in He. discriminate.
  - specialize (He k1). simpl in He. rewrite beq_refl in He. discriminate.
  - inversion H1 as [|? ? S1 A1]; inversion H2 as [|? ? S2 A2]; subst.
    destruct (bcompare k1 k2) eqn:E.
    + apply bcompare_eq in E. subst k2.
      assert (a1 = a2) by (specialize (He k1); simpl in He; rewrite beq_refl in He; congruence). subst a2.
      f_equal. apply IH; auto. intros k. specialize (He k). simpl in He.
      destruct (beq k1 k) eqn:Ek; auto.
      apply beq_eq in Ek. subst k.
      rewrite (assoc_none_above (k1, a1) l1 k1), (assoc_none_above (k1, a1) l2 k1); auto;
        simpl; rewrite bcompare_refl; discriminate.
    + exfalso. specialize (He k1). simpl in He. rewrite beq_refl in He.
      destruct (beq k2 k1) eqn:Ek.
      * apply beq_eq in Ek. subst. rewrite bcompare_refl in E. discriminate.
      * rewrite (assoc_none_above (k2, a2) l2 k1) in He; auto; try discriminate. simpl. congruence.
    + exfalso. specialize (He k2). simpl in He. rewrite beq_refl in He.
      destruct (beq k1 k2) eqn:Ek.
      * apply beq_eq in Ek. subst. rewrite bcompare_refl in E. discriminate.
      * rewrite (assoc_none_above (k1, a1) l1 k2) in He; auto; try discriminate.
        simpl. rewrite bcompare_opp, E. simpl. discriminate.
Qed.

Theorem canon_lookup_eq (l1 l2 : amap) : lookup_eq l1 l2 -> canon l1 = canon l2.
Proof.
  intros H. apply sorted_ext; try apply sorted_canon.
  intros k. rewrite !assoc_canon. apply H.
Qed.

Lemma seek_pos_keys {A B} (l1 : list (bytes * A)) (l2 : list (bytes * B)) k :
  map fst l1 = map fst l2 -> seek_pos l1 k = seek_pos l2 k.
Proof.
  revert l2. induction l1 as [|[k1 a1] l1 IH]; intros [|[k2 a2] l2] H; simpl in *; try discriminate; auto.
  injection H as -> H. destruct (bcompare k2 k); auto.
Qed.
