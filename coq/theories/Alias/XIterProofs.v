(* Alias/XIterProofs.v — iterators of Alias/XModel.v: what Key()/Value() expose is stable across everything that
   neither moves nor releases that iterator, for all movement sequences (First/Last/Seek/Next/Prev, forward and
   backward), and stays as it is for ever once the iterator is released (the two buffers are left to the garbage
   collector, never pooled).  Refutations of the realistic mutants by computation. *)
From Coq Require Import List Arith Lia.
From GL Require Import Alias.Heap Alias.HeapProofs Alias.AliasModel Alias.XModel Alias.XPoolProofs Alias.XInvProofs.
From GL Require Base.UBuffer.
Import ListNotations.
Local Open Scope nat_scope.

Lemma xfixed_iter_copy : iter_modes_copy xfixed.
Proof. intros k d c. split; reflexivity. Qed.

Lemma foot_alloc c s x o s' X : XInv c s -> xbm s' = xbm (fst (xalloc s x o)) -> foot s s' X.
Proof.
  intros Xi E l Hl _. rewrite E. unfold xalloc. cbn [fst xbm xset_bm].
  destruct (bm_alloc_spec (xbm s) x o) as (_ & _ & _ & _ & _ & _ & Hold). apply Hold. apply (claims_lt c s l Xi Hl).
Qed.

Lemma foot_hset_tag c s l x o X : XInv c s -> tag (xbm s) l = Some o -> o <> DB KIter -> foot s (xset_hp s (hset (xhp s) l x)) X.
Proof.
  intros Xi Ht Ho y Hy _. apply (foot_hset s l x y Hy). intros ->. pose proof (iter_buf_tag c s l Xi Hy). congruence.
Qed.

Lemma foot_writer c s n pick g X : XInv c s -> foot s (table_writer c s n pick g) X.
Proof.
  intros Xi l Hl _. unfold table_writer, bm_writer. cbn [xbm xset_bm]. pose proof Xi as [R _].
  pose proof (get_fill_spec c (xbm s) n pick g (r_bm _ _ _ _ R)) as S. cbv zeta in S.
  destruct (bpool_get c (xbm s) n pick) as [b1 l1]. cbn [fst snd] in S. destruct S as (_ & _ & _ & _ & _ & _ & _ & Q2 & _).
  pose proof (iter_buf_tag c s l Xi Hl) as Ht. rewrite bpool_put_cont.
  apply Q2; [eapply tag_lt; eauto|eapply not_was_pool; eauto; discriminate].
Qed.

Lemma foot_evict c s k X : XInv c s -> foot s (xevict c s k) X.
Proof.
  intros _. unfold xevict. destruct (nth_error (xcache s) k) as [n|]; [|apply foot_refl].
  intros l _ _. cbn [xbm xset_bm]. rewrite gc_node_cont. reflexivity.
Qed.

Lemma get_iter_app s s' i it x : xiters s' = xiters s ++ [x] -> get_iter s i = Some it -> get_iter s' i = Some it.
Proof. unfold get_iter. intros -> H. rewrite nth_error_app1; auto. apply nth_error_Some. congruence. Qed.

Lemma bufs_in s i it : get_iter s i = Some it -> forall l, In l (iter_buf_locs it) -> In l (iter_bufs s).
Proof. intros H l Hl. unfold iter_bufs. apply in_flat_map. exists it. split; auto. eapply nth_error_In; eauto. Qed.

(* the buffers of two iterators are different *)
Lemma bufs_disjoint c s i j it l : XInv c s -> i <> j -> get_iter s i = Some it -> In l (iter_buf_locs it) -> ~ bufs_of s j l.
Proof.
  intros [_ N] Hn Hi Hl (it' & Hj & Hl'). unfold iter_bufs in N. eapply (flat_map_disj iter_buf_locs _ i j); eauto.
Qed.

Definition other_step (i : nat) (s s' : xstate) : Prop :=
  (forall it, get_iter s i = Some it -> get_iter s' i = Some it) /\
  (forall it, get_iter s i = Some it -> forall l, In l (iter_buf_locs it) -> cont (xbm s') l = cont (xbm s) l).

Lemma other_of_foot i s s' : (forall it, get_iter s i = Some it -> get_iter s' i = Some it) ->
  foot s s' (fun _ => False) -> other_step i s s'.
Proof. intros G F. split; auto. intros it Hi l Hl. apply F; auto. eapply bufs_in; eauto. Qed.

Lemma keep_iters s s' i : xiters s' = xiters s -> forall it, get_iter s i = Some it -> get_iter s' i = Some it.
Proof. unfold get_iter. intros ->. auto. Qed.

Lemma foot_put md c s k v del X : XInv c s -> foot s (xput md c s k v del) X.
Proof.
  intros Xi. unfold xput, xmem_put. cbn. intros l Hl Hn.
  change (cont (xbm (xset_hp s (happend (xhp s) (mkv (xmem s)) (ikey k (S (xseq s)) ++ (if del then [] else v))))) l = cont (xbm s) l).
  unfold happend. eapply (foot_hset_tag c s (mkv (xmem s)) _ (DB KMem)); eauto; [|discriminate]. destruct Xi as [R _].
  apply (r_claims _ _ _ _ R). apply mem_claim.
Qed.

Lemma foot_txn_put md c s k v del X : XInv c s -> foot s (xtxn_put md c s k v del) X.
Proof.
  intros Xi. unfold xtxn_put. destruct (xtxn s) as [t|] eqn:Et; [|apply foot_refl]. unfold xmem_put. cbn. intros l Hl Hn.
  change (cont (xbm (xset_hp s (happend (xhp s) (mkv (tmem t)) (ikey k (S (xseq s)) ++ (if del then [] else v))))) l = cont (xbm s) l).
  unfold happend. eapply (foot_hset_tag c s (mkv (tmem t)) _ (DB KMem)); eauto; [|discriminate]. destruct Xi as [R _].
  apply (r_claims _ _ _ _ R). apply txn_claim. exact Et.
Qed.

(* a table writer, then a new arena in the place of the buffer written out *)
Lemma foot_writer_arena c s n pick g s1 s' X : XInv c s -> XInv c s1 -> xbm s1 = xbm (table_writer c s n pick g) ->
  iter_bufs s1 = iter_bufs s -> xbm s' = xbm (fst (xalloc s1 [] (DB KMem))) -> foot s s' X.
Proof.
  intros Xi X1 E1 Eb E2. apply (foot_trans s s1 s').
  - intros l Hl Hn. rewrite E1. apply (foot_writer c s n pick g X Xi l Hl Hn).
  - eapply foot_alloc; eauto.
  - rewrite Eb. auto.
Qed.

Lemma foot_flush c s pick X : XInv c s -> foot s (xflush c s pick) X.
Proof.
  intros Xi. unfold xflush.
  set (t := build_table (blk c) (mem_content (xhp s) (xmem s))).
  set (s1 := table_writer c s (N.of_nat (length (first_img t) + 5)) pick (first_img t)).
  apply (foot_writer_arena c s (N.of_nat (length (first_img t) + 5)) pick (first_img t) (xset_tabs s1 (xfiles s1 ++ [t]) (length (xfiles s1) :: xlive s1))); auto; try reflexivity.
  apply XInv_writer_tabs; exact Xi.
Qed.

Lemma foot_txn_flush c s pick X : XInv c s -> foot s (xtxn_flush c s pick) X.
Proof.
  intros Xi. unfold xtxn_flush. destruct (xtxn s) as [tx|]; [|apply foot_refl].
  set (t := build_table (blk c) (mem_content (xhp s) (tmem tx))).
  set (s1 := table_writer c s (N.of_nat (length (first_img t) + 5)) pick (first_img t)).
  apply (foot_writer_arena c s (N.of_nat (length (first_img t) + 5)) pick (first_img t) (xset_tabs s1 (xfiles s1 ++ [t]) (xlive s1))); auto; try reflexivity.
  apply XInv_writer_tabs; exact Xi.
Qed.

Lemma xiters_txn_flush c s pick : xiters (xtxn_flush c s pick) = xiters s.
Proof. unfold xtxn_flush. destruct (xtxn s); auto. Qed.

Lemma foot_get_begin c s a k ex pk X : XInv c s -> foot s (xget_begin c s a k ex pk) X /\ xiters (xget_begin c s a k ex pk) = xiters s.
Proof.
  intros Xi. unfold xget_begin.
  destruct (XInv_touch c ex s Xi) as (X1 & _ & T1 & Ft).
  set (s1 := touch_blocks c s ex) in *.
  assert (F1 : foot s s1 X) by (eapply foot_weaken; [exact Ft|intros l []]).
  destruct (xfind s a k) as [[e|tid bi d]|]; cbn [xbm xset_calls xiters]; try (split; [exact F1|exact T1]).
  pose proof (XInv_acquire c s1 tid bi pk X1) as A. destruct (xacquire_frame c s1 tid bi pk) as [_ F2].
  destruct (xacquire c s1 tid bi pk) as [s2 oh]. cbn [fst snd] in A, F2. destruct A as (X2 & Ft2 & _).
  cbn [xbm xset_calls xiters]. split; [|congruence].
  eapply foot_trans; [exact F1|eapply foot_weaken; [exact Ft2|intros l []]|]. intros l Hl. rewrite (iter_bufs_eq s s1 T1). auto.
Qed.

Lemma alloc_cont s x o y : y < length (xhp s) -> cont (xbm (fst (xalloc s x o))) y = cont (xbm s) y.
Proof. intros H. unfold xalloc. cbn [fst xbm xset_bm]. apply (bm_alloc_spec (xbm s) x o). exact H. Qed.

Lemma alloc_len s x o : length (xhp (fst (xalloc s x o))) = S (length (xhp s)).
Proof. unfold xalloc, xhp. cbn [fst xbm xset_bm]. apply (bm_alloc_spec (xbm s) x o). Qed.

Lemma get_end_cont md c s j y : y < length (xhp s) -> cont (xbm (fst (xget_end md c s j))) y = cont (xbm s) y.
Proof.
  intros Hy. unfold xget_end. destruct (nth_error (xcalls s) j) as [cl|]; [|reflexivity]. destruct (c_done cl); [reflexivity|].
  set (s0 := xset_calls s _). assert (E0 : forall z, cont (xbm s0) z = cont (xbm s) z) by reflexivity.
  assert (L0 : length (xhp s0) = length (xhp s)) by reflexivity.
  destruct (c_src cl) as [[e|tid bi d]|]; cbn [fst].
  - unfold xtransfer. destruct (md (XPGetMem (c_kind cl)) c).
    + destruct (xalloc s0 (deref (xhp s0) (mv e)) Client) as [s1 l1] eqn:Ea. cbn [fst xbm xset_cvis].
      pose proof (alloc_cont s0 (deref (xhp s0) (mv e)) Client y) as A. rewrite Ea in A. cbn [fst] in A. rewrite A; auto.
    + cbn [fst xbm xset_cvis]. auto.
  - destruct (c_hold cl) as [h|]; cbn [fst]; [|auto].
    destruct (md (XPGetTable (c_kind cl)) c).
    + unfold xtransfer. set (x := deref (xhp s0) (mkref (h_loc h) (voff d) (vlen d))).
      destruct (xalloc s0 x Client) as [s1 l1] eqn:Ea. cbn [fst xbm xset_cvis]. rewrite release_cont.
      pose proof (alloc_cont s0 x Client y) as A. rewrite Ea in A. cbn [fst] in A. rewrite A; auto.
    + cbn [fst xbm xset_cvis]. destruct (h_kind h); [rewrite release_cont; auto|]. destruct (pool_on c); [rewrite release_cont; auto|].
      transitivity (cont (xbm (xrelease c s0 h)) y); [|rewrite release_cont; auto].
      unfold xset_hp, cont, xhp. cbn [xbm xset_bm bh bm_hp]. apply hget_hchown.
  - destruct (c_hold cl) as [h|]; cbn [fst]; [rewrite release_cont|]; auto.
Qed.

Lemma get_end_iters md c s j : xiters (fst (xget_end md c s j)) = xiters s.
Proof.
  unfold xget_end. destruct (nth_error (xcalls s) j) as [cl|]; [|reflexivity]. destruct (c_done cl); [reflexivity|].
  destruct (c_src cl) as [[e|tid bi d]|]; cbn [fst].
  - unfold xtransfer. destruct (md (XPGetMem (c_kind cl)) c); reflexivity.
  - destruct (c_hold cl) as [h|]; cbn [fst]; [|reflexivity]. unfold xtransfer.
    destruct (md (XPGetTable (c_kind cl)) c); [reflexivity|]. destruct (h_kind h); [reflexivity|]. destruct (pool_on c); reflexivity.
  - destruct (c_hold cl); reflexivity.
Qed.

Lemma txn_commit_frame c s pick X : XInv c s -> foot s (xtxn_commit c s pick) X /\ xiters (xtxn_commit c s pick) = xiters s.
Proof.
  intros Xi. unfold xtxn_commit. pose proof (foot_txn_flush c s pick X Xi) as F. pose proof (xiters_txn_flush c s pick) as E.
  destruct (xtxn (xtxn_flush c s pick)); [|split; [apply foot_refl|reflexivity]]. split; [exact F|exact E].
Qed.

Lemma txn_open_frame c s X : XInv c s -> foot s (xtxn_open s) X /\ xiters (xtxn_open s) = xiters s.
Proof.
  intros Xi. unfold xtxn_open. destruct (xtxn s); [split; [apply foot_refl|reflexivity]|].
  split; [eapply foot_alloc; eauto|]; reflexivity.
Qed.

(* a step that neither moves nor releases iterator i leaves its record and the contents of its two buffers alone *)
Lemma other_step_holds md c i s o : XInv c s -> xmoves i o = false -> other_step i s (fst (xstep md c s o)).
Proof.
  intros Xi Hm. destruct o; cbn [xstep fst xmoves] in *.
  - destruct (is_some (xtxn s)); cbn [fst]; [split; auto|]. apply other_of_foot; [apply keep_iters; reflexivity|apply foot_put; auto].
  - destruct (is_some (xtxn s)); cbn [fst]; [split; auto|]. apply other_of_foot; [apply keep_iters; reflexivity|apply foot_put; auto].
  - split; auto.
  - destruct (foot_get_begin c s a k ex pk (fun _ => False) Xi) as [F E]. apply other_of_foot; [apply keep_iters; auto|auto].
  - split; [apply keep_iters; apply get_end_iters|]. intros it Hi l Hl. apply get_end_cont.
    apply (claims_lt c s l Xi). eapply bufs_in; eauto.
  - destruct (XInv_new_iter c s a Xi) as (_ & _ & E). split; [intros it Hi; eapply get_iter_app; eauto|].
    intros it Hi l Hl. unfold xnew_iter.
    assert (Lt : l < length (xhp s)) by (apply (claims_lt c s l Xi); eapply bufs_in; eauto).
    destruct (xalloc s [] (DB KIter)) as [s1 kb] eqn:E1. destruct (xalloc s1 [] (DB KIter)) as [s2 vb] eqn:E2. cbn [xbm xset_iters].
    pose proof (alloc_cont s [] (DB KIter) l Lt) as A1. rewrite E1 in A1. cbn [fst] in A1.
    pose proof (alloc_len s [] (DB KIter)) as L1. rewrite E1 in L1. cbn [fst] in L1.
    pose proof (alloc_cont s1 [] (DB KIter) l) as A2. rewrite E2 in A2. cbn [fst] in A2. rewrite A2, A1; auto. lia.
  - (* a movement of another iterator *)
    apply Nat.eqb_neq in Hm. destruct (XInv_iter_move2 md c s i0 m ex pk ex2 Xi) as ((_ & _ & (L & O & _) & F) & _).
    split; [intros it Hi; rewrite O; auto|]. intros it Hi l Hl. apply F; [eapply bufs_in; eauto|].
    eapply bufs_disjoint; eauto.
  - split; auto.
  - (* the release of another iterator *)
    apply Nat.eqb_neq in Hm. destruct (XInv_iter_release c s i0 Xi) as ((_ & _ & (L & O & _) & F) & _).
    split; [intros it Hi; rewrite O; auto|]. intros it Hi l Hl. apply F; [eapply bufs_in; eauto|auto].
  - destruct (txn_open_frame c s (fun _ => False) Xi) as [F E]. apply other_of_foot; [apply keep_iters; auto|auto].
  - apply other_of_foot; [apply keep_iters; unfold xtxn_put; destruct (xtxn s); reflexivity|apply foot_txn_put; auto].
  - apply other_of_foot; [apply keep_iters; unfold xtxn_put; destruct (xtxn s); reflexivity|apply foot_txn_put; auto].
  - destruct (txn_commit_frame c s pick (fun _ => False) Xi) as [F E]. apply other_of_foot; [apply keep_iters; auto|auto].
  - split; auto.
  - destruct (is_some (xtxn s)); cbn [fst]; [split; auto|]. apply other_of_foot; [apply keep_iters; reflexivity|apply foot_flush; auto].
  - apply other_of_foot; [apply keep_iters; apply xiters_txn_flush|apply foot_txn_flush; auto].
  - apply other_of_foot; [apply keep_iters; unfold xevict; destruct (nth_error (xcache s) k); reflexivity|apply foot_evict; auto].
  - split; auto.
  - apply other_of_foot; [apply keep_iters; reflexivity|apply foot_writer; auto].
  - unfold xscribble. destruct (nth_error (xcvis s) i0) as [r|] eqn:Er; [|split; auto].
    apply other_of_foot; [apply keep_iters; reflexivity|].
    eapply (foot_hset_tag c s (rloc r) _ Client); eauto; [|discriminate]. destruct Xi as [R _].
    apply (r_claims _ _ _ _ R). apply cvis_claim. eapply nth_error_In; eauto.
Qed.

Definition ExOwn (s : xstate) : Prop := forall j it, get_iter s j = Some it -> ex_ok it.

Lemma ExOwn_step md c s o : get_modes_fixed md -> iter_modes_copy md -> XInv c s -> ExOwn s -> ExOwn (fst (xstep md c s o)).
Proof.
  intros Mg Md X E.
  assert (Keep : forall s', xiters s' = xiters s -> ExOwn s') by (intros s' H j it Hj; unfold get_iter in Hj; rewrite H in Hj; eapply E; eauto).
  destruct o; cbn [xstep fst]; try (apply Keep; reflexivity).
  - destruct (is_some (xtxn s)); cbn [fst]; apply Keep; reflexivity.
  - destruct (is_some (xtxn s)); cbn [fst]; apply Keep; reflexivity.
  - apply Keep. apply (foot_get_begin c s a k ex pk (fun _ => False) X).
  - apply Keep. apply get_end_iters.
  - destruct (XInv_new_iter c s a X) as (_ & _ & En). intros j it Hj. unfold get_iter in Hj. rewrite En in Hj.
    destruct (Nat.lt_ge_cases j (length (xiters s))) as [H|H].
    + rewrite nth_error_app1 in Hj by auto. eapply E; eauto.
    + rewrite nth_error_app2 in Hj by auto. destruct (j - length (xiters s)) as [|[|]]; simpl in Hj; try discriminate.
      inversion Hj; subst. split; reflexivity.
  - (* a movement *)
    destruct (XInv_iter_move2 md c s i m ex pk ex2 X) as ((_ & _ & (_ & O & _ & Sn) & _) & Ex).
    intros j it Hj. destruct (Nat.eq_dec j i) as [->|Hn]; [|rewrite O in Hj by auto; eapply E; eauto].
    destruct (get_iter s i) as [it0|] eqn:Hi; [|rewrite (Sn eq_refl) in Hj; discriminate]. eapply Ex; eauto.
  - (* a release *)
    destruct (XInv_iter_release c s i X) as ((_ & _ & (_ & O & Si & Sn) & _) & Rec).
    intros j it Hj. destruct (Nat.eq_dec j i) as [->|Hn]; [|rewrite O in Hj by auto; eapply E; eauto].
    destruct (get_iter s i) as [it0|] eqn:Hi; [|rewrite (Sn eq_refl) in Hj; discriminate].
    destruct (Si it0 eq_refl) as (it1 & H1 & ((B1 & B2 & _) & _)). destruct (Rec it0 eq_refl) as (it2 & H2 & _ & B7 & B8).
    rewrite H1 in Hj, H2. inversion Hj; subst it1. inversion H2; subst it2.
    destruct (E i it0 Hi) as [A1 A2]. unfold ex_ok. rewrite B1, B2, B7, B8. auto.
  - apply Keep. apply (txn_open_frame c s (fun _ => False) X).
  - apply Keep. unfold xtxn_put. destruct (xtxn s); reflexivity.
  - apply Keep. unfold xtxn_put. destruct (xtxn s); reflexivity.
  - apply Keep. apply (txn_commit_frame c s pick (fun _ => False) X).
  - destruct (is_some (xtxn s)); cbn [fst]; apply Keep; reflexivity.
  - apply Keep. apply xiters_txn_flush.
  - apply Keep. unfold xevict. destruct (nth_error (xcache s) k); reflexivity.
  - apply Keep. unfold xscribble. destruct (nth_error (xcvis s) i); reflexivity.
Qed.

Lemma ExOwn_init pbase : ExOwn (xinit pbase).
Proof. intros j it H. unfold get_iter in H. simpl in H. destruct j; discriminate. Qed.

Lemma xrun_app md c : forall p q s, xrun md c s (p ++ q) =
  (fst (xrun md c (fst (xrun md c s p)) q), snd (xrun md c s p) ++ snd (xrun md c (fst (xrun md c s p)) q)).
Proof.
  induction p as [|o p IH]; intros q s; cbn [xrun app].
  - cbn [fst snd app]. destruct (xrun md c s q); reflexivity.
  - destruct (xstep md c s o) as [s1 x]. rewrite IH. destruct (xrun md c s1 p) as [s2 xs]. cbn [fst snd].
    destruct (xrun md c s2 q) as [s3 ys]. cbn [fst snd]. destruct x; reflexivity.
Qed.

Lemma xfinal_app md c pbase p q : xfinal md c pbase (p ++ q) = fst (xrun md c (xfinal md c pbase p) q).
Proof. unfold xfinal. rewrite xrun_app. reflexivity. Qed.

Record Good (c : config) (s : xstate) : Prop := { g_inv : XInv c s; g_ex : ExOwn s }.

Lemma Good_run md c : get_modes_fixed md -> iter_modes_copy md -> forall p s, Good c s -> Good c (fst (xrun md c s p)).
Proof.
  intros Mg Md. induction p as [|o p IH]; intros s G; cbn [xrun]; auto.
  assert (G1 : Good c (fst (xstep md c s o))).
  { destruct G as [X E]. constructor; [apply XInv_step; auto|apply ExOwn_step; auto]. }
  destruct (xstep md c s o) as [s1 x]. cbn [fst] in G1. specialize (IH s1 G1). destruct (xrun md c s1 p). cbn [fst] in *. auto.
Qed.

Lemma Good_final md c pbase p : get_modes_fixed md -> iter_modes_copy md -> Good c (xfinal md c pbase p).
Proof. intros Mg Md. unfold xfinal. apply Good_run; auto. constructor; [apply XInv_init|apply ExOwn_init]. Qed.

Lemma read_same s s' i it : get_iter s i = Some it -> get_iter s' i = Some it -> ex_ok it ->
  (forall l, In l (iter_buf_locs it) -> cont (xbm s') l = cont (xbm s) l) -> xiter_read s' i = xiter_read s i.
Proof.
  intros H H' [E1 E2] Hc. unfold xiter_read. rewrite H, H'. destruct (xi_live it); auto. destruct (xi_pos it); auto.
  unfold deref. unfold cont, xhp in *. rewrite E1, E2. rewrite (Hc (xi_kbuf it)), (Hc (xi_vbuf it)); auto; simpl; auto.
Qed.

(* iterator_buffers_stable, all movement sequences: whatever brought iterator i where it is (First, Last, Seek, Next,
   Prev in any order, in pre), what Key()/Value() expose is the same after any operations that neither move nor
   release it: other iterators moving in either direction, reads in flight, writes, flushes, evictions, pooled buffers
   being reused by readers and table writers, client scribbles *)
Theorem iterator_stable_all_moves md c pbase pre mid i : get_modes_fixed md -> iter_modes_copy md ->
  (forall o, In o mid -> xmoves i o = false) ->
  get_iter (xfinal md c pbase pre) i <> None ->
  xiter_read (xfinal md c pbase (pre ++ mid)) i = xiter_read (xfinal md c pbase pre) i.
Proof.
  intros Mg Md Hm. rewrite xfinal_app. pose proof (Good_final md c pbase pre Mg Md) as G. revert G Hm.
  generalize (xfinal md c pbase pre). induction mid as [|o mid IH]; intros s G Hm Hex; cbn [xrun fst]; auto.
  assert (Ho : xmoves i o = false) by (apply Hm; left; auto).
  assert (G1 : Good c (fst (xstep md c s o))).
  { destruct G as [X E]. constructor; [apply XInv_step; auto|apply ExOwn_step; auto]. }
  pose proof (other_step_holds md c i s o (g_inv _ _ G) Ho) as [Or Oc].
  destruct (xstep md c s o) as [s1 x] eqn:Es. cbn [fst] in *.
  destruct (get_iter s i) as [it|] eqn:Hi; [|congruence].
  assert (H1 : get_iter s1 i = Some it) by auto.
  specialize (IH s1 G1 (fun o' H => Hm o' (or_intror H))). destruct (xrun md c s1 mid) as [s2 xs]. cbn [fst] in *.
  rewrite IH by congruence. eapply read_same; eauto. apply (g_ex _ _ G i it Hi).
Qed.

(* a released iterator: nothing changes its record or its two buffers any more, not even its own methods *)
Lemma dead_step md c i s o it : XInv c s -> get_iter s i = Some it -> xi_live it = false ->
  get_iter (fst (xstep md c s o)) i = Some it /\
  (forall l, In l (iter_buf_locs it) -> cont (xbm (fst (xstep md c s o))) l = cont (xbm s) l).
Proof.
  intros X Hi Hl. destruct (xmoves i o) eqn:Hm.
  - destruct o; cbn [xmoves] in Hm; try discriminate; apply Nat.eqb_eq in Hm; subst i0; cbn [xstep].
    + unfold xiter_move2, xiter_move. rewrite Hi, Hl. cbn [fst snd]. split; auto.
    + unfold xiter_release. rewrite Hi, Hl. cbn [fst]. split; auto.
  - destruct (other_step_holds md c i s o X Hm) as [Or Oc]. split; auto. intros l Hin. eapply Oc; eauto.
Qed.

Lemma dead_run md c i it : get_modes_fixed md -> forall p s, XInv c s -> get_iter s i = Some it -> xi_live it = false ->
  get_iter (fst (xrun md c s p)) i = Some it /\
  (forall l, In l (iter_buf_locs it) -> cont (xbm (fst (xrun md c s p))) l = cont (xbm s) l).
Proof.
  intros Mg. induction p as [|o p IH]; intros s X Hi Hl; cbn [xrun]; [split; auto|].
  destruct (dead_step md c i s o it X Hi Hl) as [H1 C1]. pose proof (XInv_step md c s o Mg X) as X1.
  destruct (xstep md c s o) as [s1 x]. cbn [fst] in *. destruct (IH s1 X1 H1 Hl) as [H2 C2].
  destruct (xrun md c s1 p) as [s2 xs]. cbn [fst] in *. split; auto. intros l Hin. rewrite C2, C1; auto.
Qed.

Lemma census_not_iter c s l : XInv c s -> In l (census s) -> tag (xbm s) l <> Some (DB KIter).
Proof.
  intros [R _] Hin. pose proof R as [R1 R2 _ _ _ _]. unfold census in Hin. apply in_app_or in Hin. destruct Hin as [Hp|Hin].
  - rewrite (bi_pool _ R1 l Hp). discriminate.
  - apply in_app_or in Hin. destruct Hin as [Hc|Ho].
    + apply in_map_iff in Hc. destruct Hc as (n & En & Hn). rewrite <- En. unfold xcache in Hn. rewrite (bi_cache _ R1 n Hn). discriminate.
    + apply own_locs_in in Ho. destruct Ho as (h & Hh & Ek & El). rewrite <- El. rewrite (R2 h Hh Ek). discriminate.
Qed.

(* What the code does at Release.  The iterator's two buffers are dropped for the
   garbage collector (i.key = nil; i.value = nil), they are never given to the buffer pool, the cache or another
   holder; the slices the caller still has from the last Key()/Value() therefore keep their contents for ever, whatever
   the DB does afterwards (reads reusing pooled buffers, table writers, evictions, other iterators) and whatever is
   called on the released iterator.  The block buffers its children held went back to the cache or the pool — the
   caller never had a slice of those. *)
Theorem iterator_release_keeps_slices md c pbase pre post i it : get_modes_fixed md -> iter_modes_copy md ->
  get_iter (xfinal md c pbase pre) i = Some it ->
  let s0 := xfinal md c pbase pre in
  let s1 := xfinal md c pbase (pre ++ XIterRelease i :: post) in
  (exists it', get_iter s1 i = Some it' /\ xi_live it' = false /\ xi_exk it' = xi_exk it /\ xi_exv it' = xi_exv it) /\
  deref (xhp s1) (xi_exk it) = deref (xhp s0) (xi_exk it) /\ deref (xhp s1) (xi_exv it) = deref (xhp s0) (xi_exv it) /\
  ~ In (rloc (xi_exk it)) (census s1) /\ ~ In (rloc (xi_exv it)) (census s1).
Proof.
  intros Mg Md Hi. cbv zeta. rewrite xfinal_app. pose proof (Good_final md c pbase pre Mg Md) as [X E].
  set (s0 := xfinal md c pbase pre) in *. cbn [xrun]. cbn [xstep].
  destruct (XInv_iter_release c s0 i X) as ((Xr & _ & (_ & _ & Si & _) & Fr) & Rec).
  destruct (Rec it Hi) as (it' & Hr & Ld & Ek & Ev). destruct (Si it Hi) as (it2 & H2 & ((Bk & Bv & _) & _)).
  rewrite Hr in H2. inversion H2; subst it2. clear H2.
  destruct (dead_run md c i it' Mg post (xiter_release c s0 i) Xr Hr Ld) as [H2 C2].
  pose proof (XInv_run md c Mg post _ Xr) as X2.
  destruct (xrun md c (xiter_release c s0 i) post) as [s2 xs]. cbn [fst] in *.
  destruct (E i it Hi) as [Ok Ov].
  assert (Ck : cont (xbm s2) (xi_kbuf it) = cont (xbm s0) (xi_kbuf it)).
  { rewrite C2 by (unfold iter_buf_locs; rewrite Bk; simpl; auto). apply Fr; auto. eapply bufs_in; eauto. simpl; auto. }
  assert (Cv : cont (xbm s2) (xi_vbuf it) = cont (xbm s0) (xi_vbuf it)).
  { rewrite C2 by (unfold iter_buf_locs; rewrite Bv; simpl; auto). apply Fr; auto. eapply bufs_in; eauto. simpl; auto. }
  split; [exists it'; auto|]. unfold deref, xhp. unfold cont in Ck, Cv. rewrite Ok, Ov, Ck, Cv. split; auto. split; auto.
  assert (Tk : tag (xbm s2) (xi_kbuf it) = Some (DB KIter) /\ tag (xbm s2) (xi_vbuf it) = Some (DB KIter)).
  { split; apply (iter_buf_tag c s2 _ X2); eapply bufs_in; eauto; unfold iter_buf_locs; rewrite Bk, Bv; simpl; auto. }
  split; intros Hin; apply (census_not_iter c s2 _ X2) in Hin; apply Hin; apply Tk.
Qed.

(* dbIter.prev does not copy the value: i.value = i.iter.Value() *)
Definition md_prev_value_slice : xmodes := fun p c =>
  match p with XPIterValue _ DBwd => Slice | _ => xfixed p c end.

(* Snapshot.Get returns the slice of the write buffer *)
Definition md_snap_get_slice : xmodes := fun p c =>
  match p with XPGetMem KSnap => Slice | _ => xfixed p c end.

Definition cfg_pool_only : config := {| pool_on := true; cache_on := false; snappy := false; blk := 0 |}.
Definition cfg_both : config := {| pool_on := true; cache_on := true; snappy := false; blk := 0 |}.
Definition pk0 : picks := (Some 0, Some 0).

(* two keys in two blocks of one table; the iterator goes to the last key; prev() leaves the table child in the
   block of the entry before (ex2) *)
Definition bw_pre : list xop :=
  [XPut [1%N] [10%N]; XPut [2%N] [20%N]; EXFlush None; XIterNew AccDB; XIterMove 0 MLast [] pk0 [(0, Some 1, (None, None))]].
(* a Get of the other key reuses the pooled buffer *)
Definition bw_mid : list xop := [XGetBegin AccDB [1%N] [] pk0].

Lemma bw_code_stable :
  xiter_read (xfinal xfixed cfg_pool_only 16 bw_pre) 0 = Some (XPair (Some ([2%N], [20%N]))) /\
  xiter_read (xfinal xfixed cfg_pool_only 16 (bw_pre ++ bw_mid)) 0 = Some (XPair (Some ([2%N], [20%N]))).
Proof. split; vm_compute; reflexivity. Qed.

Theorem prev_value_slice_refuted :
  exists md c pbase pre mid i, get_modes_fixed md /\ (forall o, In o mid -> xmoves i o = false) /\
    get_iter (xfinal md c pbase pre) i <> None /\
    xiter_read (xfinal md c pbase (pre ++ mid)) i <> xiter_read (xfinal md c pbase pre) i.
Proof.
  exists md_prev_value_slice, cfg_pool_only, 16%N, bw_pre, bw_mid, 0. split; [intros k c; split; reflexivity|].
  split; [intros o [<-|[]]; reflexivity|]. split; vm_compute; discriminate.
Qed.

(* the same mutant at Release: the value slice the caller kept is a slice of a block buffer that goes back to the pool
   and is overwritten by the next read *)
Definition rel_pre : list xop :=
  [XPut [1%N] [10%N]; XPut [2%N] [20%N]; EXFlush None; XIterNew AccDB; XIterMove 0 MLast [] pk0 []].
Definition rel_post : list xop := [XGetBegin AccDB [1%N] [] pk0].

Theorem release_pools_exposed_buffer_refuted :
  exists md c pbase pre post i it, get_modes_fixed md /\ get_iter (xfinal md c pbase pre) i = Some it /\
    In (rloc (xi_exv it)) (census (xfinal md c pbase (pre ++ [XIterRelease i]))) /\
    deref (xhp (xfinal md c pbase (pre ++ XIterRelease i :: post))) (xi_exv it) <> deref (xhp (xfinal md c pbase pre)) (xi_exv it).
Proof.
  exists md_prev_value_slice, cfg_pool_only, 16%N, rel_pre, rel_post, 0. eexists.
  split; [intros k c; split; reflexivity|]. split; [vm_compute; reflexivity|]. split.
  - vm_compute. auto.
  - vm_compute. discriminate.
Qed.

Lemma release_code_keeps :
  match get_iter (xfinal xfixed cfg_pool_only 16 rel_pre) 0 with
  | Some it => deref (xhp (xfinal xfixed cfg_pool_only 16 (rel_pre ++ XIterRelease 0 :: rel_post))) (xi_exv it) = [20%N] /\
               ~ In (rloc (xi_exv it)) (census (xfinal xfixed cfg_pool_only 16 (rel_pre ++ [XIterRelease 0]))) /\
               census (xfinal xfixed cfg_pool_only 16 (rel_pre ++ [XIterRelease 0])) <> []
  | None => False
  end.
Proof. vm_compute. repeat split; try discriminate. intros [H|[]]; discriminate. Qed.

(* Snapshot.Get handing out the arena: the client's scribble changes what the DB returns later, and the separation
   invariant is gone *)
Definition snap_prog : list xop :=
  [XPut [1%N] [10%N]; XSnapNew; XGetBegin (AccSnap 0) [1%N] [] pk0; XGetEnd 0; XScribble 0 0 [99%N];
   XGetBegin AccDB [1%N] [] pk0; XGetEnd 1].

Theorem snapshot_get_slice_refuted :
  xoutputs md_snap_get_slice cfg_both 16 snap_prog <> xoutputs md_snap_get_slice cfg_both 16 (x_no_scribbles snap_prog)
  /\ ~ xseparated (xfinal md_snap_get_slice cfg_both 16 snap_prog)
  /\ xoutputs xfixed cfg_both 16 snap_prog = xoutputs xfixed cfg_both 16 (x_no_scribbles snap_prog).
Proof.
  split; [vm_compute; discriminate|]. split; [|vm_compute; reflexivity].
  remember (xfinal md_snap_get_slice cfg_both 16 snap_prog) as s eqn:E. vm_compute in E. subst s.
  intros (V & _). discriminate (V (mkref 0 2 1) ltac:(cbn; auto)).
Qed.

(* non-vacuity of the stability theorem: a backward walk through cached and pooled blocks with another iterator,
   a read in flight, a flush and an eviction in between *)
Example stable_nonvacuous :
  let pre := [XPut [1%N] [10%N]; XPut [2%N] [20%N]; XPut [3%N] [30%N]; EXFlush None; XSnapNew; XPut [2%N] [21%N];
              XIterNew (AccSnap 0); XIterMove 0 MLast [] pk0 [(0, Some 1, pk0)]; XIterMove 0 MPrev [] pk0 [(0, Some 2, pk0)]] in
  let mid := [XIterNew AccDB; XIterMove 1 (MSeek [2%N]) [] pk0 []; XGetBegin AccDB [3%N] [] pk0; EXFlush (Some 0); EXEvict 0;
              XIterMove 1 MPrev [] pk0 []; XGetEnd 0; XScribble 0 0 [7%N]; EXTableWrite 8 (Some 0) [5%N; 5%N; 5%N]; XIterRelease 1] in
  (forall o, In o mid -> xmoves 0 o = false) /\
  xiter_read (xfinal xfixed cfg_both 16 pre) 0 = Some (XPair (Some ([2%N], [20%N]))) /\
  xiter_read (xfinal xfixed cfg_both 16 (pre ++ mid)) 0 = Some (XPair (Some ([2%N], [20%N]))) /\
  xoutputs xfixed cfg_both 16 (pre ++ mid) = [XBool true; XBool true; XBool true; XBool true; XVal (Some [30%N])].
Proof.
  cbv zeta. split; [intros o H; simpl in H; repeat (destruct H as [<-|H]; [reflexivity|]); contradiction|].
  repeat split; vm_compute; reflexivity.
Qed.

(* goleveldb before the repair 239f7b9: table.Writer.Close can run twice and then Puts its block buffer twice.
   Nothing in util.BufferPool notices (Base/UBuffer.v, C13U_pool_double_put_refuted); in this model: the census
   of the buffer manager has a duplicate, BInv fails, and the next two Gets hand the same array to two owners — the step function never does
   this (single_owner is an invariant), so it is the witness of what the invariant excludes. *)
Theorem pool_double_put_breaks_single_owner :
  let c := cfg_pool_only in
  let b0 := xbm (xinit 16) in
  let '(b1, l) := bpool_get c b0 8 None in
  let b2 := bpool_put c (bpool_put c b1 l) l in
  let '(b3, l1) := bpool_get c b2 5 (Some 0) in
  let '(b4, l2) := bpool_get c b3 5 (Some 0) in
  BInv b1 /\ ~ NoDup (pool_ids (bpl b2)) /\ ~ BInv b2 /\ UBuffer.bp_count (bpl b2) l = 2 /\ l1 = l /\ l2 = l.
Proof.
  vm_compute. split; [|split; [|split; [|repeat split]]].
  - constructor; vm_compute; try constructor. intros l []. intros n [].
  - intros N. inversion N; subst. apply H1. left. reflexivity.
  - intros [_ _ N _]. vm_compute in N. inversion N; subst. apply H1. left. reflexivity.
Qed.

(* a client scribble changes client-owned cells only: no arena, no cached / pooled / held block buffer, no iterator
   buffer changes; the records do not change at all *)
Theorem scribble_hits_client_memory_only c pbase p i pos g :
  let s := xfinal xfixed c pbase p in
  let s' := xscribble s i pos g in
  (forall l, hown (xhp s) l <> Some Client -> hget (xhp s') l = hget (xhp s) l) /\
  (forall l, hown (xhp s') l = hown (xhp s) l) /\
  xset_hp s' (xhp s) = s.
Proof.
  cbv zeta. pose proof (XInv_final c pbase p) as X. set (s := xfinal xfixed c pbase p) in *.
  unfold xscribble. destruct (nth_error (xcvis s) i) as [r|] eqn:Er.
  - assert (Ht : hown (xhp s) (rloc r) = Some Client).
    { destruct X as [R _]. apply (r_claims _ _ _ _ R (rloc r) Client). apply cvis_claim. eapply nth_error_In; eauto. }
    split; [|split].
    + intros l Hl. unfold xset_hp, xhp. cbn [xbm xset_bm bh bm_hp]. apply hget_hset_other. intros <-. apply Hl. exact Ht.
    + intros l. unfold xset_hp, xhp. cbn [xbm xset_bm bh bm_hp]. apply hown_hset.
    + unfold xset_hp, xhp. destruct s as [[h p0 ca] q m f li t sn it cl cv]. reflexivity.
  - split; [|split]; auto. unfold xset_hp, xhp. destruct s as [[h p0 ca] q m f li t sn it cl cv]. reflexivity.
Qed.
