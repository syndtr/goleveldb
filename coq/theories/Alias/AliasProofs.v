(* Alias/AliasProofs.v — the theorems of the ownership model (property C20):
   separation, noninterference, iterator_buffers_stable for the fixed code; the refutations for the
   table path before the fix; for each copy the fixed code makes, a program on which the code with a slice
   in its place goes wrong.  The step-by-step work is in Alias/StepProofs.v. *)
From GL Require Import Alias.Heap Alias.AliasModel Alias.InvProofs Alias.StepProofs.
From Coq Require Import Arith.
Local Open Scope nat_scope.

Lemma inv_init c : Inv c init.
Proof.
  constructor; simpl; auto.
  - intros r [].
  - split; simpl; auto. reflexivity.
  - split; [|split; [|split]]; simpl; auto.
    + split; simpl; [constructor|]. intros tid bi l [].
    + split; simpl; [constructor|]. intros l [].
  - reflexivity.
  - split; simpl; constructor.
  - intros t [].
  - unfold cbatch_ok; simpl; auto.
  - congruence.
Qed.

Lemma rel_init : Rel init sinit.
Proof.
  constructor; simpl; auto.
  intros k. reflexivity.
Qed.

Fixpoint sfinal (sp : sstate) (p : list op) : sstate :=
  match p with
  | [] => sp
  | o :: p' => sfinal (fst (sstep sp o)) p'
  end.

Lemma run_sim c : forall p s sp,
  Inv c s -> Rel s sp ->
  Inv c (fst (run fixed_modes c s p)) /\ Rel (fst (run fixed_modes c s p)) (sfinal sp p) /\
  snd (run fixed_modes c s p) = srun sp p.
Proof.
  induction p as [|o p IH]; intros s sp I R; simpl; auto.
  destruct (step_ok c s sp o I R) as (I1 & R1 & E1).
  destruct (step fixed_modes c s o) as [s1 x]. destruct (sstep sp o) as [sp1 y]. cbn [fst snd] in *. subst y.
  destruct (IH s1 sp1 I1 R1) as (I2 & R2 & E2).
  destruct (run fixed_modes c s1 p) as [s2 xs]. cbn [fst snd] in *.
  split; [|split]; auto. destruct x; congruence.
Qed.

Lemma run_app md c : forall p q s,
  run md c s (p ++ q) =
  (fst (run md c (fst (run md c s p)) q), snd (run md c s p) ++ snd (run md c (fst (run md c s p)) q)).
Proof.
  induction p as [|o p IH]; intros q s; simpl.
  - destruct (run md c s q); auto.
  - destruct (step md c s o) as [s1 x]. rewrite IH.
    destruct (run md c s1 p) as [s2 xs]. cbn [fst snd].
    destruct (run md c s2 q) as [s3 ys]. cbn [fst snd]. destruct x; auto.
Qed.

Lemma sfinal_app : forall p q sp, sfinal sp (p ++ q) = sfinal (sfinal sp p) q.
Proof. induction p as [|o p IH]; intros q sp; simpl; auto. Qed.

(* every program, with client scribbles and background work interleaved at will, in every
   configuration, answers exactly like the plain map that never sees a scribble *)
Theorem noninterference c p : outputs fixed_modes c p = spec_outputs p.
Proof. unfold outputs, spec_outputs. apply (run_sim c p init sinit (inv_init c) rel_init). Qed.

Lemma srun_filter (f : op -> bool) : (forall o sp, f o = false -> sstep sp o = (sp, None)) ->
  forall p sp, srun sp (filter f p) = srun sp p.
Proof.
  intros Hf. induction p as [|o p IH]; intros sp; auto.
  cbn [filter]. destruct (f o) eqn:E.
  - cbn [srun]. destruct (sstep sp o) as [sp1 [y|]]; rewrite IH; auto.
  - cbn [srun]. rewrite (Hf o sp E). apply IH.
Qed.

(* the outputs with scribbles equal the outputs of the same program without them *)
Theorem scribbles_do_not_matter c p : outputs fixed_modes c p = outputs fixed_modes c (no_scribbles p).
Proof.
  rewrite !noninterference. unfold spec_outputs. symmetry. apply srun_filter.
  intros [] sp E; try discriminate; reflexivity.
Qed.

(* nor does the configuration (pool, cache, compression, block size) *)
Theorem configuration_does_not_matter c1 c2 p : outputs fixed_modes c1 p = outputs fixed_modes c2 p.
Proof. rewrite !noninterference. auto. Qed.

Definition no_env (p : list op) : list op := filter (fun o => negb (is_env o)) p.

(* nor where the data lives: the programs with and without the background steps (rotation, flush,
   compaction) answer alike *)
Theorem data_location_does_not_matter c p : outputs fixed_modes c p = outputs fixed_modes c (no_env p).
Proof.
  rewrite !noninterference. unfold spec_outputs. symmetry. apply srun_filter.
  intros [] sp E; try discriminate; reflexivity.
Qed.

Lemma inv_separated c s : Inv c s -> separated s.
Proof.
  intros I. split; [exact (i_cvis _ _ I)|].
  assert (forall m, memdb_ok (hp s) m -> forall l, In l (memdb_locs m) -> hown (hp s) l = Some (DB KMem)) as MM.
  { intros m [O F] l [<-|Hl]; auto. apply in_flat_map in Hl as [e [He Hl]].
    eapply Forall_forall in F; eauto. destruct F as (E1 & E2 & _). destruct Hl as [<-|[<-|[]]]; congruence. }
  intros l Hl. unfold db_reach in Hl.
  apply in_app_or in Hl as [Hl|Hl].
  { exists (DB KMem). split; auto. apply (MM _ (i_mem _ _ I)); auto. }
  apply in_app_or in Hl as [Hl|Hl].
  { pose proof (i_frozen _ _ I) as F. destruct (frozen s) as [m|]; [|contradiction]. exists (DB KMem). split; auto. apply (MM _ F); auto. }
  apply in_app_or in Hl as [Hl|Hl].
  { pose proof (i_txn _ _ I) as F. destruct (txn s) as [t|]; [|contradiction]. exists (DB KMem). split; auto. apply (MM _ F); auto. }
  apply in_app_or in Hl as [Hl|Hl].
  { apply in_map_iff in Hl as [[[tid bi] l'] [E Hin]]. simpl in E. subst l'.
    destruct (i_block _ _ I) as ([_ C] & _). destruct (C _ _ _ Hin) as [O _]. exists Cache. auto. }
  apply in_app_or in Hl as [Hl|Hl].
  { destruct (i_block _ _ I) as (_ & [_ P] & _). exists Pool. split; auto. apply P; auto. }
  apply in_app_or in Hl as [Hl|Hl].
  { destruct Hl as [<-|[]]. exists (DB KBatch). split; auto. apply I. }
  apply in_flat_map in Hl as [it [Hit Hl]].
  destruct (i_iters _ _ I) as [IO _]. eapply Forall_forall in IO; eauto.
  destruct IO as (O1 & O2 & E1 & E2 & FS).
  unfold iter_locs in Hl. destruct (ilive it); [|contradiction].
  apply in_app_or in Hl as [Hl|Hl].
  - exists (DB KIter). split; auto. destruct Hl as [<-|[<-|[<-|[<-|[]]]]]; auto; congruence.
  - apply in_flat_map in Hl as [x [Hx Hl]]. eapply Forall_forall in FS; eauto.
    unfold src_locs in Hl. destruct (snd x) as [e|]; [|contradiction].
    destruct FS as [O (E3 & E4 & _)]. exists (DB KMem). split; auto.
    destruct Hl as [<-|[<-|[]]]; auto. unfold own in O. congruence.
Qed.

(* in every reachable state (any program, any configuration) whatever the client can write to is
   client-owned, and nothing a DB-side structure refers to is *)
Theorem separation c p : separated (final fixed_modes c p).
Proof.
  apply (inv_separated c). unfold final. apply (run_sim c p init sinit (inv_init c) rel_init).
Qed.

(* hence no buffer the client may overwrite is one the DB still refers to *)
Theorem separation_disjoint c p r :
  In r (cvis (final fixed_modes c p)) -> ~ In (rloc r) (db_reach (final fixed_modes c p)).
Proof.
  intros Hr Hd. destruct (separation c p) as [S1 S2].
  specialize (S1 r Hr). destruct (S2 _ Hd) as [o [O N]]. unfold owned_by_client in S1.
  rewrite S1 in O. injection O as <-. discriminate.
Qed.

Definition moves (i : nat) (o : op) : bool :=
  match o with
  | OIterNext j | OIterSeek j _ | OIterRelease j => Nat.eqb i j
  | _ => false
  end.

Lemma nth_error_replace_other {A} i j (l : list A) x : i <> j -> nth_error (replace_nth j l x) i = nth_error l i.
Proof.
  revert i j. induction l as [|y l IH]; intros [|i] [|j] N; simpl; auto; try congruence.
Qed.

Lemma sstep_keeps_iter sp o i :
  moves i o = false -> nth_error (sits sp) i <> None -> nth_error (sits (fst (sstep sp o))) i = nth_error (sits sp) i.
Proof.
  intros M E. destruct o; simpl in *; auto;
    try (destruct (is_some (stxn sp)); simpl; auto; fail);
    try (destruct (stxn sp); simpl; auto; fail).
  - (* new iterator: appended at the end *)
    rewrite nth_error_app1; auto. apply nth_error_Some; auto.
  - destruct (nth_error (sits sp) i0) as [it|] eqn:H; simpl; auto.
    destruct (slive it); simpl; auto. apply nth_error_replace_other. apply Nat.eqb_neq; auto.
  - destruct (nth_error (sits sp) i0) as [it|] eqn:H; simpl; auto.
    destruct (slive it); simpl; auto. apply nth_error_replace_other. apply Nat.eqb_neq; auto.
  - destruct (nth_error (sits sp) i0) as [it|] eqn:H; simpl; auto.
    destruct (slive it); simpl; auto.
  - destruct (nth_error (sits sp) i0) as [it|] eqn:H; simpl; auto.
    apply nth_error_replace_other. apply Nat.eqb_neq; auto.
Qed.

Lemma sfinal_keeps_iter : forall mid sp i,
  (forall o, In o mid -> moves i o = false) -> nth_error (sits sp) i <> None ->
  nth_error (sits (sfinal sp mid)) i = nth_error (sits sp) i.
Proof.
  induction mid as [|o mid IH]; intros sp i H E; simpl; auto.
  assert (nth_error (sits (fst (sstep sp o))) i = nth_error (sits sp) i) as E1
    by (apply sstep_keeps_iter; auto; apply H; simpl; auto).
  rewrite IH; auto.
  - intros o' Ho'. apply H; simpl; auto.
  - congruence.
Qed.

(* what Key()/Value() of an existing iterator show does not change while that iterator is neither moved
   nor released, whatever else happens in between: writes, flushes, compactions, cache evictions,
   moves of other iterators, client scribbles *)
Theorem iterator_buffers_stable c pre mid i :
  (forall o, In o mid -> moves i o = false) ->
  nth_error (iters (final fixed_modes c pre)) i <> None ->
  snd (step fixed_modes c (final fixed_modes c (pre ++ mid)) (OIterRead i)) =
  snd (step fixed_modes c (final fixed_modes c pre) (OIterRead i)).
Proof.
  intros HM HE. unfold final in *. rewrite run_app. cbn [fst].
  destruct (run_sim c pre init sinit (inv_init c) rel_init) as (I1 & R1 & _).
  set (s1 := fst (run fixed_modes c init pre)) in *.
  destruct (run_sim c mid s1 _ I1 R1) as (I2 & R2 & _).
  set (s2 := fst (run fixed_modes c s1 mid)) in *.
  destruct (step_ok c s1 _ (OIterRead i) I1 R1) as (_ & _ & E1).
  destruct (step_ok c s2 _ (OIterRead i) I2 R2) as (_ & _ & E2).
  rewrite E1, E2. cbn [sstep].
  assert (nth_error (sits (sfinal sinit pre)) i <> None) as HS.
  { destruct (nth_error (iters s1) i) as [it|] eqn:Hi; [|congruence].
    destruct (Forall2_nth _ _ _ _ _ (r_its _ _ R1) Hi) as [si [Hs _]]. congruence. }
  rewrite (sfinal_keeps_iter mid _ i HM HS).
  destruct (nth_error (sits (sfinal sinit pre)) i) as [si|]; auto.
  destruct (slive si); auto.
Qed.

Local Open Scope N_scope.

(* The table path before the fix (unfixed_modes), with DisableBufferPool and the block cache on: Put, flush,
   Get, the client overwrites the value it got, Get again *)
Definition d1_config : config := {| pool_on := false; cache_on := true; snappy := false; blk := 1%nat |}.
Definition d1_program : list op :=
  [OPut [107; 49] [1; 2; 3]; ERotate; EFlush; OGet [107; 49]; CScribble 0 0 [9; 9; 9]; OGet [107; 49]].

Theorem get_alias_refuted :
  exists c p, outputs unfixed_modes c p <> spec_outputs p /\ outputs unfixed_modes c p <> outputs unfixed_modes c (no_scribbles p).
Proof. exists d1_config, d1_program. split; vm_compute; discriminate. Qed.

Lemma client_sees_db_memory s r : In r (cvis s) -> hown (hp s) (rloc r) <> Some Client -> ~ separated s.
Proof. intros Hin N [S _]. exact (N (S r Hin)). Qed.

(* ... and the state in between violates separation: the client holds a slice of a block the cache owns *)
Theorem separation_refuted : exists c p, ~ separated (final unfixed_modes c p).
Proof.
  exists d1_config, [OPut [107; 49] [1; 2; 3]; ERotate; EFlush; OGet [107; 49]].
  remember (final unfixed_modes d1_config _) as s eqn:E. vm_compute in E. subst s.
  apply (client_sees_db_memory _ {| rloc := 6%nat; roff := 2%nat; rlen := 3%nat |}); [cbn; auto|discriminate].
Qed.

(* with the fix the same program answers like the map (an instance of noninterference, by computation) *)
Example d1_fixed : outputs fixed_modes d1_config d1_program = spec_outputs d1_program.
Proof. vm_compute. reflexivity. Qed.

(* Every copy in fixed_modes is needed: the fixed code with one copy replaced by a slice (flip) goes wrong. *)

Definition path_eqb (a b : path) : bool :=
  match a, b with
  | PBatchAppend, PBatchAppend | PPutRec, PPutRec | PMemPut, PMemPut | PGetMem, PGetMem
  | PGetAuxMem, PGetAuxMem | PGetTable, PGetTable | PIterKey, PIterKey | PIterValue, PIterValue => true
  | _, _ => false
  end.

Definition flip (p : path) : modes := fun q c => if path_eqb p q then Slice else fixed_modes q c.

Definition cfg_plain : config := {| pool_on := true; cache_on := true; snappy := false; blk := 1%nat |}.
Definition cfg_pool_nocache : config := {| pool_on := true; cache_on := false; snappy := false; blk := 0%nat |}.

(* DB.get returning the write buffer's slice: the client's scribble changes the next Get *)
Example copy_needed_get_mem :
  outputs (flip PGetMem) cfg_plain [OPut [1] [10; 11]; OGet [1]; CScribble 0 0 [9; 9]; OGet [1]]
  <> spec_outputs [OPut [1] [10; 11]; OGet [1]; CScribble 0 0 [9; 9]; OGet [1]].
Proof. vm_compute. discriminate. Qed.

(* memdb.Put keeping the slice it was given (the pooled batch of putRec): the next Put overwrites it *)
Example copy_needed_mem_put :
  outputs (flip PMemPut) cfg_plain [OPut [1] [10]; OPut [2] [20]; OGet [1]]
  <> spec_outputs [OPut [1] [10]; OPut [2] [20]; OGet [1]].
Proof. vm_compute. discriminate. Qed.

(* Batch.Put keeping the caller's slices: overwriting the argument before Write changes what is written *)
Example copy_needed_batch_append :
  outputs (flip PBatchAppend) cfg_plain [OBatchPut [1] [10]; CScribble 0 0 [9]; OBatchWrite; OGet [1]]
  <> spec_outputs [OBatchPut [1] [10]; CScribble 0 0 [9]; OBatchWrite; OGet [1]].
Proof. vm_compute. discriminate. Qed.

(* Transaction.Get returning the transaction buffer's slice *)
Example copy_needed_txn_get :
  outputs (flip PGetAuxMem) cfg_plain [OTxnOpen; OTxnPut [1] [10]; OTxnGet [1]; CScribble 0 0 [9]; OTxnGet [1]]
  <> spec_outputs [OTxnOpen; OTxnPut [1] [10]; OTxnGet [1]; CScribble 0 0 [9]; OTxnGet [1]].
Proof. vm_compute. discriminate. Qed.

(* find returning a slice of a pooled block: the buffer is recycled by the next block read, so the
   value the client holds changes under it.  The model's outputs do not show that (first conjunct: on this
   program, scribble included, they still agree with the map); what fails is separation: after the Get the
   client holds a slice of a buffer the pool owns. *)
Example copy_needed_get_table_pool :
  outputs (flip PGetTable) cfg_pool_nocache
    [OPut [1] [10]; OPut [2] [20]; ERotate; EFlush; OGet [1]; OGet [2]; CScribble 2 0 [9; 9]; OGet [2]; OGet [1]]
  = spec_outputs
    [OPut [1] [10]; OPut [2] [20]; ERotate; EFlush; OGet [1]; OGet [2]; CScribble 2 0 [9; 9]; OGet [2]; OGet [1]]
  /\ ~ separated (final (flip PGetTable) cfg_pool_nocache [OPut [1] [10]; ERotate; EFlush; OGet [1]]).
Proof.
  split; [vm_compute; reflexivity|].
  remember (final (flip PGetTable) cfg_pool_nocache _) as s eqn:E. vm_compute in E. subst s.
  apply (client_sees_db_memory _ {| rloc := 6%nat; roff := 1%nat; rlen := 1%nat |}); [cbn; auto|discriminate].
Qed.

(* dbIter exposing the block's slice instead of copying: the pooled block is recycled by the next read *)
Example copy_needed_iter_value :
  outputs (flip PIterValue) cfg_pool_nocache
    [OPut [1] [10]; OPut [2] [20]; ERotate; EFlush; OIterNew; OIterNext 0; OIterRead 0; OGet [2]; OIterRead 0]
  <> spec_outputs
    [OPut [1] [10]; OPut [2] [20]; ERotate; EFlush; OIterNew; OIterNext 0; OIterRead 0; OGet [2]; OIterRead 0].
Proof. vm_compute. discriminate. Qed.
