(* Alias/ApiProofs.v — the code delivers at least what every doc comment promises, in every configuration and
   wherever the data is; Snapshot.Get delivers exactly what DB.Get does (more than its comment says); each mutant
   table breaks a promise. *)
From GL Require Import Alias.AliasModel Alias.XModel Alias.ApiModes Alias.XIterProofs.

Theorem delivered_honours_promised a c p : honours (delivered fixed_modes xfixed a c p) (promised a) = true.
Proof.
  destruct a as [[| |]|k|k d|k d| | | | | |]; destruct p; cbn; try reflexivity;
    try (destruct (pool_on c) eqn:Ep, (cache_on c) eqn:Ec; cbn; rewrite ?Ep, ?Ec; reflexivity).
Qed.

(* Snapshot.Get is the same DB.get as DB.Get: the same delivery, although its comment only says "should not modify" *)
Theorem snapshot_get_as_db_get c p :
  delivered fixed_modes xfixed (ApiGet KSnap) c p = delivered fixed_modes xfixed (ApiGet KDB) c p
  /\ stronger_than_promised (delivered fixed_modes xfixed (ApiGet KSnap) c p) (promised (ApiGet KSnap)) = true.
Proof. destruct p; cbn; split; try reflexivity; destruct (pool_on c) eqn:Ep, (cache_on c) eqn:Ec; cbn; rewrite ?Ep, ?Ec; reflexivity. Qed.

(* both directions of an iterator expose its own buffers *)
Theorem iterator_delivery k d c p :
  delivered fixed_modes xfixed (ApiIterKey k d) c p = DIterBuffer /\ delivered fixed_modes xfixed (ApiIterValue k d) c p = DIterBuffer.
Proof. split; reflexivity. Qed.

(* XModel's mode tables with one copy turned into a slice deliver less than promised *)
Theorem prev_value_slice_breaks_promise c p :
  honours (delivered fixed_modes md_prev_value_slice (ApiIterValue KDB DBwd) c p) (promised (ApiIterValue KDB DBwd)) = false.
Proof. reflexivity. Qed.

Theorem snap_get_slice_breaks_promise c :
  honours (delivered fixed_modes md_snap_get_slice (ApiGet KSnap) c InMem) (promised (ApiGet KSnap)) = false.
Proof. reflexivity. Qed.

(* the table path before the fix (slice whenever the pool is off) with the cache on: a shared slice for an "own copy" *)
Definition xunfixed : xmodes := fun p c =>
  match p with XPGetTable _ => if pool_on c then Copy else Slice | _ => Copy end.

Theorem unfixed_get_breaks_promise :
  honours (delivered fixed_modes xunfixed (ApiGet KDB) {| pool_on := false; cache_on := true; snappy := false; blk := 0 |} InTable)
          (promised (ApiGet KDB)) = false.
Proof. reflexivity. Qed.
