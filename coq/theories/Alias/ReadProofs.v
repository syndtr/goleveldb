(* Alias/ReadProofs.v — DB.get / DB.has of the ownership model (fixed code): they are quiet, keep the
   block invariant, return client-owned copies, and answer like the stored contents. *)
From GL Require Import Alias.Heap Alias.AliasModel Alias.ContentProofs Alias.InvProofs Alias.BlockProofs.
Local Open Scope nat_scope.

(* what a read-side function (started in a state quiet-reachable from s) must deliver for the stored list lst *)
Definition getspec (c : config) (s : state) (k : bytes) (lst : amap) (x : state * option (option ref)) : Prop :=
  quiet s (fst x) /\ blockinv c (fst x) /\ cvis (fst x) = cvis s /\
  res_client (hp (fst x)) (snd x) /\ res_val (hp (fst x)) (snd x) = assoc k lst.

Lemma res_val_quiet s s' r : quiet s s' -> res_client (hp s) r -> res_val (hp s') r = res_val (hp s) r /\ res_client (hp s') r.
Proof.
  intros Q. destruct r as [[v|]|]; simpl; auto. intros O. split.
  - f_equal. f_equal. unfold deref. erewrite keep_get; eauto. apply Q. auto.
  - eapply keep_own; eauto. apply Q. auto.
Qed.

Lemma orelse_spec c s k l1 l2 x f :
  getspec c s k l1 x ->
  (forall s1, quiet s s1 -> blockinv c s1 -> cvis s1 = cvis s -> getspec c s k l2 (f s1)) ->
  getspec c s k (l1 ++ l2) (orelse x f).
Proof.
  intros (Q & B & V & RC & RV) H. destruct x as [s1 [r|]]; simpl in *.
  - unfold getspec; simpl. split5; auto. rewrite assoc_app, <- RV. destruct r; auto.
  - destruct (H s1 Q B V) as (Q2 & B2 & V2 & RC2 & RV2).
    unfold getspec. split5; auto. rewrite assoc_app, <- RV. simpl. auto.
Qed.

Lemma tabs_get_spec c tids : forall s0 s k,
  quiet s0 s -> blockinv c s -> cvis s = cvis s0 ->
  getspec c s0 k (tabs_content s0 tids) (tabs_get fixed_modes c s tids k).
Proof.
  induction tids as [|t ts IH]; intros s0 s k Q B V.
  - simpl. unfold getspec; simpl. split5; auto.
  - simpl. destruct (tab_get fixed_modes c s t k) as [s1 r1] eqn:ET.
    destruct (tab_get_ok _ _ _ _ _ _ B ET) as (Q1 & B1 & V1 & RV1 & RC1).
    assert (quiet s0 s1) as Q01 by (eapply quiet_trans; eauto).
    assert (tab_file_content s t = tab_file_content s0 t) as ET0
      by (unfold tab_file_content; rewrite (q_files _ _ Q); auto).
    destruct r1 as [r|].
    + unfold getspec; simpl. split5; auto; try congruence.
      unfold tabs_content; simpl. rewrite assoc_app, <- ET0, <- RV1. destruct r; auto.
    + destruct (IH s0 s1 k Q01 B1 ltac:(congruence)) as (Q2 & B2 & V2 & RC2 & RV2).
      unfold getspec. split5; auto.
      unfold tabs_content in *; simpl. rewrite assoc_app, <- ET0, <- RV1. simpl. auto.
Qed.

Lemma mem_find_assoc h m k :
  match mem_find h (mds m) k with
  | Some e => assoc k (mem_content h m) = Some (if mdel e then None else Some (deref h (mv e)))
  | None => assoc k (mem_content h m) = None
  end.
Proof.
  unfold mem_content. induction (mds m) as [|e es IH]; simpl; auto.
  destruct (beq (deref h (mk e)) k); auto.
Qed.

Lemma mem_get_spec c p s0 s m k :
  fixed_modes p c = Copy -> quiet s0 s -> blockinv c s -> cvis s = cvis s0 ->
  getspec c s0 k (mem_content (hp s) m) (mem_get fixed_modes c p s m k).
Proof.
  intros EM Q B V. unfold mem_get.
  pose proof (mem_find_assoc (hp s) m k) as HF.
  destruct (mem_find (hp s) (mds m) k) as [e|].
  - destruct (mdel e).
    + unfold getspec; simpl. split5; auto.
    + rewrite EM. destruct (transfer Copy s (mv e) Client) as [s1 r1] eqn:ET.
      destruct (transfer_copy_ok c s _ s1 r1 B ET) as (Q1 & B1 & V1 & O1 & D1 & _).
      unfold getspec; simpl. split5; auto; [eapply quiet_trans; eauto|congruence|]. rewrite HF, D1. reflexivity.
  - unfold getspec; simpl. split5; auto.
Qed.

Lemma omem_get_spec c p s0 s m k :
  fixed_modes p c = Copy -> quiet s0 s -> blockinv c s -> cvis s = cvis s0 ->
  getspec c s0 k (ocontent (hp s) m) (omem_get fixed_modes c p s m k).
Proof.
  intros EM Q B V. destruct m as [m|]; simpl.
  - apply mem_get_spec; auto.
  - unfold getspec; simpl. split5; auto.
Qed.

Definition flatten (x : option (option bytes)) : option bytes :=
  match x with Some (Some v) => Some v | _ => None end.

Lemma glookup_flatten k l : glookup k l = flatten (assoc k l).
Proof. unfold glookup, flatten. destruct (assoc k l) as [[v|]|]; auto. Qed.

Definition aux_ok (s : state) (aux : option txnst) : Prop :=
  match aux with None => True | Some t => txn s = Some t end.

Definition view (s : state) (aux : option txnst) : amap :=
  match aux with None => content s | Some t => txn_content s t end.

Lemma tabs_content_app s a b : tabs_content s (a ++ b) = tabs_content s a ++ tabs_content s b.
Proof. unfold tabs_content. apply flat_map_app. Qed.

Lemma db_get_ok c s aux k :
  Inv c s -> aux_ok s aux ->
  getspec c s k (view s aux) (db_get fixed_modes c s aux k).
Proof.
  intros I A.
  (* the view in the order db_get searches: transaction buffer, write buffer, frozen buffer, then the
     transaction's tables before l0 and the deeper levels.  txn_content puts the transaction's tables before the
     write buffers; the two agree because the write buffers are empty while a transaction is open (i_txnq). *)
  assert (view s aux =
          ocontent (hp s) (option_map tmem aux) ++ (mem_content (hp s) (mem s) ++
          (ocontent (hp s) (frozen s) ++ tabs_content s (match aux with Some t => ttabs t | None => [] end ++ l0 s ++ deep s)))) as EV.
  { destruct aux as [t|]; simpl.
    - simpl in A.
      assert (txn s <> None) as NT by congruence.
      destruct (i_txnq _ _ I NT) as [EM EF].
      assert (mem_content (hp s) (mem s) = []) as M0 by (unfold mem_content; rewrite EM; auto).
      assert (ocontent (hp s) (frozen s) = []) as F0.
      { destruct (frozen s) as [m|]; auto. simpl. unfold mem_content. rewrite EF. auto. }
      unfold txn_content, content. rewrite M0, F0. simpl. rewrite !tabs_content_app. auto.
    - auto. }
  rewrite EV. unfold db_get.
  apply orelse_spec.
  { apply omem_get_spec; auto. apply quiet_refl. apply I. }
  intros s1 Q1 B1 V1.
  assert (mem_content (hp s) (mem s) = mem_content (hp s1) (mem s1)) as ->.
  { rewrite (q_mem _ _ Q1). symmetry. apply mem_content_grow; [apply quiet_memgrow; auto|apply I]. }
  apply orelse_spec.
  { apply mem_get_spec; auto. }
  intros s2 Q2 B2 V2.
  assert (ocontent (hp s) (frozen s) = ocontent (hp s2) (frozen s2)) as ->.
  { rewrite (q_frozen _ _ Q2). symmetry. apply ocontent_grow; [apply quiet_memgrow; auto|apply I]. }
  apply orelse_spec.
  { apply omem_get_spec; auto. }
  intros s3 Q3 B3 V3.
  rewrite (q_l0 _ _ Q3), (q_deep _ _ Q3).
  apply tabs_get_spec; auto.
Qed.

Definition hasspec (c : config) (s : state) (k : bytes) (lst : amap) (x : state * option bool) : Prop :=
  quiet s (fst x) /\ blockinv c (fst x) /\ cvis (fst x) = cvis s /\
  snd x = option_map (fun ov => match ov with Some _ => true | None => false end) (assoc k lst).

Lemma orelse_hasspec c s k l1 l2 x f :
  hasspec c s k l1 x ->
  (forall s1, quiet s s1 -> blockinv c s1 -> cvis s1 = cvis s -> hasspec c s k l2 (f s1)) ->
  hasspec c s k (l1 ++ l2) (orelse x f).
Proof.
  intros (Q & B & V & R) H. destruct x as [s1 [r|]]; simpl in *.
  - unfold hasspec; simpl. split; [|split; [|split]]; auto.
    rewrite assoc_app. destruct (assoc k l1); simpl in *; try discriminate. auto.
  - destruct (H s1 Q B V) as (Q2 & B2 & V2 & R2).
    unfold hasspec. split; [|split; [|split]]; auto.
    rewrite assoc_app. destruct (assoc k l1); simpl in *; try discriminate. auto.
Qed.

Lemma tab_has_ok c s tid k s' r :
  blockinv c s -> tab_has c s tid k = (s', r) ->
  quiet s s' /\ blockinv c s' /\ cvis s' = cvis s /\
  r = option_map (fun ov => match ov with Some _ => true | None => false end) (assoc k (tab_file_content s tid)).
Proof.
  intros B E. unfold tab_has in E. pose proof (tab_find_block s tid k) as HT.
  destruct (nth_error (files s) tid) as [t|]; [|injection E as <- <-; rewrite HT; split; [apply quiet_refl|auto]].
  destruct (tab_find t k 0) as [[bi fb]|]; [|injection E as <- <-; rewrite HT; split; [apply quiet_refl|auto]].
  destruct HT as (FB & d & EB & HA).
  destruct (load_block c s tid bi fb) as [[s1 l] cached] eqn:EL.
  destruct (load_block_ok _ _ _ _ _ _ _ _ B FB EL) as (Q1 & B1 & V1 & G1 & O1).
  rewrite G1, EB in E.
  assert (if cached then True else own (hp s1) l (DB KBlock)) as O1' by (destruct cached; tauto).
  injection E as <- <-.
  destruct (release_block_ok c s1 l cached B1 O1') as (Q2 & B2 & V2 & K2).
  split; [eapply quiet_trans; eauto|]. split; [auto|]. split; [congruence|].
  rewrite HA. simpl. unfold dval. destruct (isdel d); auto.
Qed.

Lemma tabs_has_spec c tids : forall s0 s k,
  quiet s0 s -> blockinv c s -> cvis s = cvis s0 ->
  hasspec c s0 k (tabs_content s0 tids) (tabs_has c s tids k).
Proof.
  induction tids as [|t ts IH]; intros s0 s k Q B V.
  - simpl. unfold hasspec; simpl. auto.
  - simpl. destruct (tab_has c s t k) as [s1 r1] eqn:ET.
    destruct (tab_has_ok _ _ _ _ _ _ B ET) as (Q1 & B1 & V1 & R1).
    assert (quiet s0 s1) as Q01 by (eapply quiet_trans; eauto).
    assert (tab_file_content s t = tab_file_content s0 t) as ET0
      by (unfold tab_file_content; rewrite (q_files _ _ Q); auto).
    rewrite ET0 in R1.
    destruct r1 as [r|].
    + unfold hasspec; simpl. split; [|split; [|split]]; auto; try congruence.
      unfold tabs_content; simpl. rewrite assoc_app.
      destruct (assoc k (tab_file_content s0 t)); simpl in *; try discriminate. auto.
    + destruct (IH s0 s1 k Q01 B1 ltac:(congruence)) as (Q2 & B2 & V2 & R2).
      unfold hasspec. split; [|split; [|split]]; auto.
      unfold tabs_content in *; simpl. rewrite assoc_app.
      destruct (assoc k (tab_file_content s0 t)); simpl in *; try discriminate. auto.
Qed.

Lemma mem_has_spec c s0 s m k :
  quiet s0 s -> blockinv c s -> cvis s = cvis s0 ->
  hasspec c s0 k (ocontent (hp s) m) (mem_has s m k).
Proof.
  intros Q B V. destruct m as [m|]; simpl.
  - pose proof (mem_find_assoc (hp s) m k) as HF.
    destruct (mem_find (hp s) (mds m) k) as [e|]; unfold hasspec; simpl; rewrite HF; simpl.
    + split; [|split; [|split]]; auto. destruct (mdel e); auto.
    + auto.
  - unfold hasspec; simpl. auto.
Qed.

Lemma db_has_ok c s k :
  Inv c s -> hasspec c s k (content s) (db_has c s k).
Proof.
  intros I. unfold content, db_has.
  apply orelse_hasspec.
  { apply (mem_has_spec c s s (Some (mem s))); auto. apply quiet_refl. apply I. }
  intros s2 Q2 B2 V2.
  assert (ocontent (hp s) (frozen s) = ocontent (hp s2) (frozen s2)) as ->.
  { rewrite (q_frozen _ _ Q2). symmetry. apply ocontent_grow; [apply quiet_memgrow; auto|apply I]. }
  apply orelse_hasspec.
  { apply mem_has_spec; auto. }
  intros s3 Q3 B3 V3.
  rewrite (q_l0 _ _ Q3), (q_deep _ _ Q3).
  apply tabs_has_spec; auto.
Qed.
