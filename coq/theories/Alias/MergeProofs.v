(* Alias/MergeProofs.v — proofs about Alias/MergeModel.v (property C20, the write-merge path).
   Protocol level (no memory): whoever is in a leader's group before unlockWrite is still inside its call
   (group_waiting), hence every read of caller memory happens while that caller's call is in progress
   (reads_in_call), and none after its acknowledgement was sent (no_read_after_ack).
   Memory level, the code's order: every copy the DB makes (journal record, write buffer, pooled batch) is a copy of
   what the caller passed, whatever the clients scribble once their calls returned (copies_are_args_inv), and the
   pooled batches have one owner (pooled_single_owner).  The two re-orderings are refuted by a run each. *)
From Coq Require Import List Arith Lia Permutation.
From GL Require Import Base.Bytes Conc.WriteMerge Conc.WriteMergeProofs Alias.MergeModel.
From GL Require Mem.ListLemmas.
Import ListNotations.
Local Open Scope nat_scope.

(* the leader's local variables while it may still read its group's batches (before unlockWrite) *)
Definition mctx (p : wpc) : option lctx :=
  match p with
  | WLMerge c | WLReply c _ | WLJournal c | WLApply c | WLPublish c | WLRotate c => Some c
  | _ => None
  end.

Definition group_waiting (s : state) : Prop :=
  forall l c, mctx (wpc_of s l) = Some c -> forall y, In y (lreplied c) -> wpc_of s y = WWaitAck.

Lemma mctx_holds p c : mctx p = Some c -> holdsp p = 1.
Proof. destruct p; simpl; intros H; try discriminate; reflexivity. Qed.

Lemma group_waiting_init n : group_waiting (init n).
Proof.
  intros l c H. unfold wpc_of, getw in H. simpl in H. destruct (nth_error (repeat idle_writer n) l) eqn:E; [|discriminate].
  apply nth_error_In in E. apply repeat_spec in E. subst. discriminate.
Qed.

(* How an action moves the program counters: [pc_move a j p p'] for every writer j, from p before to p' after.  The
   contexts a leader computes (merge limit, overflow) are left open but for who was told true. *)
Definition actors (a : action) : list nat :=
  match a with
  | ACall i _ _ _ | ASelLock i | ASelPerr i | ASelClosed i | AReturn i => [i]
  | ASelMerge i l | AReplyTrue l i | AAck l i | AHandover l i => [i; l]
  | AFlushOk l _ | AFlushFail l _ | AMergeDone l | AJournalOk l | AJournalFail l _ | AApply l | APublish l
  | ARotateSkip l | ARotateOk l | ARotateFail l _ | ARelease l => [l]
  | _ => []
  end.

Inductive pc_move : action -> nat -> wpc -> wpc -> Prop :=
| pm_stay a j p : ~ In j (actors a) -> pc_move a j p p
| pm_call i m u z : pc_move (ACall i m u z) i WIdle WSelect
| pm_sel_merge i l : i <> l -> pc_move (ASelMerge i l) i WSelect WWaitMerged
| pm_overflow i l c c' : i <> l -> lreplied c' = lreplied c -> pc_move (ASelMerge i l) l (WLMerge c) (WLJournal c')
| pm_accept i l c c' : i <> l -> lreplied c' = lreplied c -> pc_move (ASelMerge i l) l (WLMerge c) (WLReply c' i)
| pm_sel_lock i : pc_move (ASelLock i) i WSelect WLFlush
| pm_sel_perr i : pc_move (ASelPerr i) i WSelect (WRet RPerr)
| pm_sel_closed i : pc_move (ASelClosed i) i WSelect (WRet RClosed)
| pm_flush_merge l f c : lreplied c = [] -> pc_move (AFlushOk l f) l WLFlush (WLMerge c)
| pm_flush_alone l f c : lreplied c = [] -> pc_move (AFlushOk l f) l WLFlush (WLJournal c)
| pm_flush_fail l e : pc_move (AFlushFail l e) l WLFlush (WLUnlock ctx0 0 e)
| pm_reply l i c x : i <> l -> pc_move (AReplyTrue l i) l (WLReply c x) (WLMerge (after_reply c i))
| pm_merged l i : i <> l -> pc_move (AReplyTrue l i) i WWaitMerged WWaitAck
| pm_merge_done l c : pc_move (AMergeDone l) l (WLMerge c) (WLJournal c)
| pm_journal_ok l c : pc_move (AJournalOk l) l (WLJournal c) (WLApply c)
| pm_journal_fail l e c : pc_move (AJournalFail l e) l (WLJournal c) (WLUnlock c 0 e)
| pm_apply l c : pc_move (AApply l) l (WLApply c) (WLPublish c)
| pm_publish l c : pc_move (APublish l) l (WLPublish c) (WLRotate c)
| pm_rotate_skip l c : pc_move (ARotateSkip l) l (WLRotate c) (WLUnlock c 0 ROk)
| pm_rotate_ok l c : pc_move (ARotateOk l) l (WLRotate c) (WLUnlock c 0 ROk)
| pm_rotate_fail l e c : pc_move (ARotateFail l e) l (WLRotate c) (WLUnlock c 0 e)
| pm_ack l i c k e : i <> l -> pc_move (AAck l i) l (WLUnlock c k e) (WLUnlock c (S k) e)
| pm_acked l i e : i <> l -> pc_move (AAck l i) i WWaitAck (WRet e)
| pm_handover l o c k e : o <> l -> pc_move (AHandover l o) l (WLUnlock c k e) (WRet e)
| pm_handed l o : o <> l -> pc_move (AHandover l o) o WWaitMerged WLFlush
| pm_release l c k e : pc_move (ARelease l) l (WLUnlock c k e) (WRet e)
| pm_return i e : pc_move (AReturn i) i (WRet e) (WDone e).

Lemma upd_move a s s' i w w' : ws s' = upd (ws s) i w' -> nth_error (ws s) i = Some w -> actors a = [i] ->
  pc_move a i (pc w) (pc w') -> forall j, pc_move a j (wpc_of s j) (wpc_of s' j).
Proof.
  intros U E A M j. unfold wpc_of, getw. rewrite U. destruct (Nat.eq_dec j i) as [->|N].
  - rewrite (nth_upd_same _ _ _ _ E), E. exact M.
  - rewrite nth_upd_other by auto. apply pm_stay. rewrite A. intros [->|[]]. auto.
Qed.

Lemma upd2_move a s s' i l wi wl wi' wl' : ws s' = upd (upd (ws s) i wi') l wl' ->
  nth_error (ws s) i = Some wi -> nth_error (ws s) l = Some wl -> i <> l -> actors a = [i; l] ->
  pc_move a i (pc wi) (pc wi') -> pc_move a l (pc wl) (pc wl') ->
  forall j, pc_move a j (wpc_of s j) (wpc_of s' j).
Proof.
  intros U Ei El N A Mi Ml j. unfold wpc_of, getw. rewrite U. destruct (Nat.eq_dec j l) as [->|Nl].
  - rewrite (nth_upd_same _ _ _ wl), El by (rewrite nth_upd_other; auto). auto.
  - rewrite nth_upd_other by auto. destruct (Nat.eq_dec j i) as [->|Ni].
    + rewrite (nth_upd_same _ _ _ _ Ei), Ei. auto.
    + rewrite nth_upd_other by auto. apply pm_stay. rewrite A. intros [->|[->|[]]]; auto.
Qed.

Lemma wpc_lt s i : wpc_of s i <> WIdle -> i < length (ws s).
Proof.
  unfold wpc_of, getw. intros H. apply nth_error_Some. destruct (nth_error (ws s) i); congruence.
Qed.

Definition returned (p : wpc) : bool := match p with WRet _ | WDone _ => true | _ => false end.
Definition owns_batch (p : wpc) : Prop := holdsp p = 1 \/ exists e, p = WRet e.

Lemma returned_not_in_call p : returned p = true -> in_call p = false.
Proof. destruct p; simpl; auto; discriminate. Qed.

(* whoever acts, other than by making its call or returning from it, is inside its call *)
Lemma actor_in_call a j p p' : pc_move a j p p' -> In j (actors a) ->
  in_call p = true \/ (exists m u z, a = ACall j m u z) \/ a = AReturn j.
Proof. destruct 1; cbn [in_call]; eauto 7. Qed.

Section Pcs.
Variable mp : mparams.

Lemma step_pc s a s' : step mp s a = Some s' ->
  length (ws s') = length (ws s) /\ forall j, pc_move a j (wpc_of s j) (wpc_of s' j).
Proof.
  intros H. destruct (step_shape mp s a s' H) as [He|i w w' t Hi Hm ->|i l w wl w' wl' t Hn Hi Hl Hm ->].
  - destruct He; (split; [reflexivity|intros j; apply pm_stay; intros []]).
  - split; [destruct Hm; cbn [ws with_ws with_lock with_logs]; apply upd_length|].
    destruct Hm; (eapply upd_move; [reflexivity|eassumption|reflexivity|]); rewrite Hp; cbn [pc set_pc];
      try destruct (wmerge _); constructor; reflexivity.
  - split; [destruct Hm; cbn [ws with_ws with_logs]; rewrite !upd_length; reflexivity|].
    destruct Hm; (eapply upd2_move; [reflexivity|eassumption|eassumption|exact Hn|reflexivity| |]);
      rewrite ?Hp, ?Hpl; cbn [pc set_pc]; try (unfold merge_decide; destruct (llim _ <? _)%N); constructor; try assumption; reflexivity.
Qed.

Lemma step_length s a s' : step mp s a = Some s' -> length (ws s') = length (ws s).
Proof. intros H. apply (step_pc _ _ _ H). Qed.

Lemma step_not_idle s a s' i : step mp s a = Some s' -> wpc_of s i <> WIdle -> wpc_of s' i <> WIdle.
Proof. intros H. destruct (proj2 (step_pc _ _ _ H) i); congruence. Qed.

Lemma step_in_call s a s' i : step mp s a = Some s' -> in_call (wpc_of s' i) = true ->
  in_call (wpc_of s i) = true \/ (wpc_of s i = WIdle /\ exists m p z, a = ACall i m p z).
Proof. intros H. destruct (proj2 (step_pc _ _ _ H) i); cbn [in_call]; auto; try discriminate. right. eauto. Qed.

Lemma step_returned s a s' i : step mp s a = Some s' -> returned (wpc_of s i) = true -> returned (wpc_of s' i) = true.
Proof. intros H. destruct (proj2 (step_pc _ _ _ H) i); cbn [returned]; auto; discriminate. Qed.

Lemma step_owns s a s' i : step mp s a = Some s' -> owns_batch (wpc_of s i) ->
  owns_batch (wpc_of s' i) \/ a = AReturn i.
Proof.
  unfold owns_batch. intros H. destruct (proj2 (step_pc _ _ _ H) i); cbn [holdsp]; eauto;
    intros [Hx|[e' Hx]]; discriminate.
Qed.

(* a leader's group after an action: its group before, and the writer it has just told true *)
Lemma move_group a j p p' c' y : pc_move a j p p' -> mctx p' = Some c' -> In y (lreplied c') ->
  (exists c, mctx p = Some c /\ In y (lreplied c)) \/ a = AReplyTrue j y.
Proof.
  destruct 1; cbn [mctx]; intros E Hy; try discriminate; inversion E; subst; eauto;
    try (match goal with E : lreplied _ = _ |- _ => rewrite E in Hy end; eauto; contradiction).
  cbn [after_reply lreplied] in Hy. apply in_app_or in Hy. destruct Hy as [Hy|[<-|[]]]; eauto.
Qed.

Lemma one_leader s l l0 : inv s -> holdsp (wpc_of s l) = 1 -> holdsp (wpc_of s l0) = 1 -> l = l0.
Proof.
  unfold wpc_of, getw. intros Hv H H0. destruct (nth_error (ws s) l) as [w|] eqn:E; [|discriminate].
  destruct (nth_error (ws s) l0) as [w0|] eqn:E0; [|discriminate].
  exact (proj1 (same_leader s l0 w0 l w Hv E0 H0 E H)).
Qed.

Lemma step_gw s a s' : inv s -> group_waiting s -> step mp s a = Some s' -> group_waiting s'.
Proof.
  intros Hv G H. destruct (step_pc _ _ _ H) as [_ M]. intros l c' Hm y Hy.
  destruct (move_group _ _ _ _ _ _ (M l) Hm Hy) as [(c & Hc & Hyc)| ->].
  - pose proof (M y) as My. rewrite (G l c Hc y Hyc) in My.
    inversion My; subst; auto. exfalso.
    (* an acknowledgement comes from a leader in unlockWrite: another lock owner than l *)
    pose proof (M l0) as Ml0. inversion Ml0; subst; try contradiction; [cbn [actors In] in *; tauto|].
    match goal with E : WLUnlock _ _ _ = wpc_of s l0 |- _ =>
      assert (l = l0) by (apply (one_leader s); auto; [eapply mctx_holds; eauto|rewrite <- E; reflexivity]);
      subst l0; rewrite <- E in Hc; discriminate
    end.
  - pose proof (M y) as My. inversion My; subst; auto; try contradiction. exfalso. cbn [actors In] in *. tauto.
Qed.

(* the writer that takes the lock, by the select or by a hand-over *)
Lemma takes_lock_pcs b a i b' : step mp b a = Some b' -> a = ASelLock i \/ (exists l, a = AHandover l i) ->
  (wpc_of b i = WSelect \/ wpc_of b i = WWaitMerged) /\ wpc_of b' i = WLFlush.
Proof.
  intros H Ha. pose proof (proj2 (step_pc _ _ _ H) i) as M.
  destruct Ha as [->|[l ->]]; inversion M; subst; auto; try contradiction; exfalso; cbn [actors In] in *; tauto.
Qed.

Lemma sel_merge_pcs b i l b' : step mp b (ASelMerge i l) = Some b' ->
  holdsp (wpc_of b' l) = 1 /\ wpc_of b' i = WWaitMerged.
Proof.
  intros H. pose proof (proj2 (step_pc _ _ _ H)) as M. pose proof (M i) as Mi. specialize (M l).
  split; [inversion M|inversion Mi]; subst; auto; try contradiction; exfalso; cbn [actors In] in *; tauto.
Qed.

Lemma reachable_gw n s : reachable mp n s -> group_waiting s.
Proof.
  intros [l H]. apply (run_ind mp (fun s => inv s /\ group_waiting s)) with (l := l) (s := init n); auto.
  - intros s0 a s1 [Hi G] E. split; [eapply step_inv|eapply step_gw]; eauto.
  - split; [apply inv_init|apply group_waiting_init].
Qed.

Lemma reachable_P2 n s : reachable mp n s -> P2 (ws s).
Proof.
  intros [l H]. destruct (run_P2 mp l _ _ (inv_init n) (P2_init n) (Forall_nil _) H) as [HP _]. exact HP.
Qed.

Lemma reachable_step n s a s' : reachable mp n s -> step mp s a = Some s' -> reachable mp n s'.
Proof.
  intros [l H] E. exists (l ++ [a]).
  assert (G : forall l s0, run mp s0 l = Some s -> run mp s0 (l ++ [a]) = Some s').
  { induction l0; simpl; intros s0 H0.
    - inversion H0; subst. rewrite E. reflexivity.
    - destruct (step mp s0 a0); try discriminate. auto. }
  auto.
Qed.

(* every member of the group of a leader that has not reached unlockWrite is inside its call *)
Lemma group_in_call n s l c : reachable mp n s -> mctx (wpc_of s l) = Some c ->
  forall y, In y (lbatches c) -> in_call (wpc_of s y) = true.
Proof.
  intros R Hm y Hy. unfold wpc_of at 1, getw in Hm. destruct (nth_error (ws s) l) as [wl|] eqn:Hl; [|discriminate].
  pose proof (reachable_P2 n s R l wl Hl) as HP. pose proof (reachable_gw n s R l c) as G.
  unfold wpc_of at 1, getw in G. rewrite Hl in G. specialize (G Hm).
  assert (Hself : in_call (wpc_of s l) = true).
  { unfold wpc_of, getw. rewrite Hl. destruct (pc wl); simpl in Hm; try discriminate; reflexivity. }
  assert (Hrep : forall z, In z (lreplied c) -> in_call (wpc_of s z) = true).
  { intros z Hz. rewrite (G z Hz). reflexivity. }
  destruct (pc wl) eqn:Ep; simpl in Hm; try discriminate; inversion Hm; subst; cbn [lead_ok] in HP.
  1,3-6: rewrite HP in Hy; destruct Hy as [<-|Hy]; auto.
  destruct HP as [Hb (wx & Hwx & Hpx)]. rewrite Hb in Hy. destruct Hy as [<-|Hy]; auto.
  apply in_app_or in Hy. destruct Hy as [Hy|[<-|[]]]; auto.
  unfold wpc_of, getw. rewrite Hwx, Hpx. reflexivity.
Qed.

Lemma ctx_of_mctx p c : ctx_of p = Some c -> mctx p = Some c \/ exists k e, p = WLUnlock c k e.
Proof. destruct p; simpl; intros H; inversion H; subst; eauto. Qed.

(* the journal, putMem and addSeq walks are made before unlockWrite *)
Lemma walk_mctx s a s' l c : step mp s a = Some s' -> In a [AJournalOk l; AApply l; APublish l] \/ (exists e, a = AJournalFail l e) ->
  ctx_of (wpc_of s l) = Some c -> mctx (wpc_of s l) = Some c.
Proof.
  intros H Ha Ec. destruct (ctx_of_mctx _ _ Ec) as [Hm|(k & e' & Ep)]; auto.
  pose proof (proj2 (step_pc _ _ _ H) l) as M. rewrite Ep in M.
  destruct Ha as [[<-|[<-|[<-|[]]]]|[e ->]]; inversion M; cbn [actors In] in *; tauto.
Qed.

(* the DB reads a caller's memory only while that caller's call is in progress *)
Theorem reads_in_call n s a s' i : reachable mp n s -> step mp s a = Some s' -> In i (mreads s a) ->
  in_call (wpc_of s i) = true.
Proof.
  intros R H Hi. pose proof (proj2 (step_pc _ _ _ H)) as M.
  destruct a; cbn [mreads] in Hi; try contradiction.
  (* the walks read the group's batches *)
  5-8: destruct (ctx_of (wpc_of s l)) as [c|] eqn:Ec; [|contradiction]; apply filter_In in Hi;
       apply (group_in_call n s l c R); [eapply walk_mctx; cbn [In]; eauto 6|apply Hi].
  (* everybody else reads the memory of one who acts *)
  all: unfold own_if_write in Hi; try destruct (wput_of _ _); try contradiction; destruct Hi as [<-|[]].
  all: match goal with |- in_call (wpc_of _ ?j) = true =>
         destruct (actor_in_call _ _ _ _ (M j)) as [?|[(?&?&?&?)|?]]; [cbn [actors In]; auto|assumption|discriminate|discriminate]
       end.
Qed.

Lemma run_reachable l n s s' : reachable mp n s -> run mp s l = Some s' -> reachable mp n s'.
Proof. apply (run_ind mp). intros s0 a s1. apply reachable_step. Qed.

(* once a writer has returned (or its acknowledgement has been sent), no later action of anybody reads its memory *)
Lemma no_read_once_returned n s1 i tr s2 a s3 : reachable mp n s1 -> returned (wpc_of s1 i) = true ->
  run mp s1 tr = Some s2 -> step mp s2 a = Some s3 -> ~ In i (mreads s2 a).
Proof.
  intros R Hr H2 H3 Hin.
  pose proof (run_ind mp (fun s => returned (wpc_of s i) = true) (fun s0 a0 s0' Hp E => step_returned _ _ _ i E Hp) tr _ _ Hr H2) as Hr2.
  pose proof (reads_in_call n s2 a s3 i (run_reachable _ _ _ _ R H2) H3 Hin) as Hc.
  rewrite (returned_not_in_call _ Hr2) in Hc. discriminate.
Qed.

(* the acknowledgement of writer i has been SENT (the rendezvous on writeAckC) *)
Theorem no_read_after_ack n s0 l i s1 tr s2 a s3 :
  reachable mp n s0 -> step mp s0 (AAck l i) = Some s1 -> run mp s1 tr = Some s2 -> step mp s2 a = Some s3 ->
  ~ In i (mreads s2 a).
Proof.
  intros R H1. apply (no_read_once_returned n); [eapply reachable_step; eauto|].
  pose proof (proj2 (step_pc _ _ _ H1) i) as M.
  inversion M; subst; try contradiction; [exfalso; cbn [actors In] in *; tauto|reflexivity].
Qed.

(* the same for a leader, once its call has returned *)
Theorem no_read_after_return n s0 i s1 tr s2 a s3 :
  reachable mp n s0 -> step mp s0 (AReturn i) = Some s1 -> run mp s1 tr = Some s2 -> step mp s2 a = Some s3 ->
  ~ In i (mreads s2 a).
Proof.
  intros R H1. apply (no_read_once_returned n); [eapply reachable_step; eauto|].
  pose proof (proj2 (step_pc _ _ _ H1) i) as M.
  inversion M; subst; [exfalso; cbn [actors In] in *; tauto|reflexivity].
Qed.
End Pcs.

Lemma nth_upd_cases {A} (l : list A) i j x d : nth j (upd l i x) d = x \/ nth j (upd l i x) d = nth j l d.
Proof.
  destruct (Nat.eq_dec i j) as [->|Hn]; [|right; apply nth_upd_other_d; auto].
  destruct (Nat.lt_ge_cases j (length l)); [left; apply nth_upd_same_d; auto|].
  right. rewrite !nth_overflow; auto. rewrite upd_length. auto.
Qed.

Lemma somes_upd_some {A} (h : list (option A)) l b :
  nth_error h l = Some None -> Permutation (somes (upd h l (Some b))) (b :: somes h).
Proof.
  revert l; induction h; intros l H; destruct l; simpl in *; try discriminate.
  - inversion H; subst. reflexivity.
  - destruct a; simpl.
    + rewrite (IHh l H). apply perm_swap.
    + apply IHh; auto.
Qed.

Lemma somes_upd_none {A} (h : list (option A)) l b :
  nth_error h l = Some (Some b) -> Permutation (somes h) (b :: somes (upd h l None)).
Proof.
  revert l; induction h; intros l H; destruct l; simpl in *; try discriminate.
  - inversion H; subst. reflexivity.
  - destruct a; simpl.
    + rewrite (IHh l H). apply perm_swap.
    + apply IHh; auto.
Qed.

Lemma somes_upd_none_incl {A} (h : list (option A)) l x : In x (somes (upd h l None)) -> In x (somes h).
Proof.
  revert l; induction h; intros l H; destruct l; simpl in *; auto.
  - destruct a; simpl; auto.
  - destruct a; simpl in *; [destruct H; eauto|eauto].
Qed.

Lemma somes_in {A} (h : list (option A)) x : In x (somes h) <-> exists i, nth_error h i = Some (Some x).
Proof.
  induction h; simpl.
  - split; [contradiction|intros [[|i] H]; discriminate].
  - destruct a; simpl; rewrite IHh; split.
    + intros [->|[i H]]; [exists 0; reflexivity|exists (S i); auto].
    + intros [[|i] H]; simpl in H; [inversion H; auto|right; eauto].
    + intros [i H]. exists (S i); auto.
    + intros [[|i] H]; simpl in H; [discriminate|eauto].
Qed.

Lemma nth_error_nth_some {A} (l : list (option A)) i x : nth i l None = Some x -> nth_error l i = Some (Some x).
Proof. revert i; induction l; intros [|i] H; simpl in *; try discriminate; [subst; auto|auto]. Qed.

Lemma upd_same {A} (h : list A) l x : nth_error h l = Some x \/ nth_error h l = None -> upd h l x = h.
Proof.
  revert l; induction h; intros [|l] [E|E]; simpl in *; try discriminate; auto; try (f_equal; auto).
  inversion E; auto.
Qed.

(* the memory invariant, relative to a protocol state b *)
Record minv_at (b : WriteMerge.state) (s : mstate) : Prop := {
  mi_len_buf : length (mbuf s) = length (ws b);
  mi_len_arg : length (marg s) = length (ws b);
  mi_len_held : length (mheld s) = length (ws b);
  mi_call : forall i, in_call (wpc_of b i) = true -> buf_of s i = arg_of s i;
  mi_pb : forall k x d, In (x, d) (pb_of s k) -> d = arg_of s x /\ wpc_of b x <> WIdle;
  mi_logs : forall x d, In (x, d) (mjournal s ++ mmem s) -> d = arg_of s x /\ wpc_of b x <> WIdle;
  mi_held : forall i k, held_of s i = Some k -> owns_batch (wpc_of b i);
  mi_ids : forall k, In k (mpool s ++ somes (mheld s)) -> k < length (mpb s);
  mi_nodup : NoDup (mpool s ++ somes (mheld s))
}.

Definition minv (s : mstate) : Prop := minv_at (mb s) s.

Lemma minv_rebase b b' s :
  minv_at b s ->
  length (ws b') = length (ws b) ->
  (forall i, in_call (wpc_of b' i) = true -> in_call (wpc_of b i) = true) ->
  (forall i, wpc_of b i <> WIdle -> wpc_of b' i <> WIdle) ->
  (forall i k, held_of s i = Some k -> owns_batch (wpc_of b' i)) ->
  minv_at b' s.
Proof.
  intros [H1 H2 H3 H4 H5 H6 H7 H8 H9] Hl Hc Hi Hh. constructor; try congruence; auto.
  - intros k x d Hin. destruct (H5 k x d Hin). auto.
  - intros x d Hin. destruct (H6 x d Hin). auto.
Qed.

Lemma minv_set_mb b s b0 : minv_at b s -> minv_at b (set_mb s b0).
Proof. intros [H1 H2 H3 H4 H5 H6 H7 H8 H9]. constructor; auto. Qed.

Lemma owns_not_free p : owns_batch p -> holdsp p = 0 -> (forall e, p <> WRet e) -> False.
Proof. intros [H|[e H]] H0 Hr; [lia|eapply Hr; eauto]. Qed.

Lemma held_none b s i : minv_at b s -> holdsp (wpc_of b i) = 0 -> (forall e, wpc_of b i <> WRet e) -> held_of s i = None.
Proof.
  intros M H0 Hr. destruct (held_of s i) eqn:E; auto. exfalso. eapply owns_not_free; eauto. eapply mi_held; eauto.
Qed.

(* batch := db.batchPool.Get(); batch.Reset() *)
Lemma minv_take b s l : minv_at b s -> l < length (ws b) -> held_of s l = None -> owns_batch (wpc_of b l) ->
  minv_at b (fst (pb_take s l)) /\ held_of (fst (pb_take s l)) l = Some (snd (pb_take s l)) /\
  pb_of (fst (pb_take s l)) (snd (pb_take s l)) = [] /\ mbuf (fst (pb_take s l)) = mbuf s /\
  marg (fst (pb_take s l)) = marg s /\ mjournal (fst (pb_take s l)) = mjournal s /\ mmem (fst (pb_take s l)) = mmem s.
Proof.
  intros M Hl Hn Ho. pose proof M as [H1 H2 H3 H4 H5 H6 H7 H8 H9].
  assert (Hnl : nth_error (mheld s) l = Some None).
  { unfold held_of in Hn. destruct (nth_error (mheld s) l) eqn:E.
    - erewrite nth_error_nth in Hn by eauto. subst. auto.
    - apply nth_error_None in E. lia. }
  unfold pb_take. destruct (mpool s) as [|k p'] eqn:Ep; cbn [fst snd].
  - (* a new batch *)
    split; [|split; [|split; [|repeat split; reflexivity]]].
    + constructor; cbn [mbuf marg mheld mpool mpb mjournal mmem set_pool]; auto.
      * rewrite upd_length; auto.
      * intros k x d Hin. unfold pb_of in Hin. cbn [mpb set_pool] in Hin.
        destruct (Nat.lt_ge_cases k (length (mpb s))).
        -- rewrite app_nth1 in Hin by auto. eapply H5; eauto.
        -- destruct (Nat.eq_dec k (length (mpb s))) as [->|].
           ++ rewrite app_nth2, Nat.sub_diag in Hin by lia. simpl in Hin. contradiction.
           ++ rewrite nth_overflow in Hin; [contradiction|]. rewrite app_length. simpl. lia.
      * intros i k Hk. unfold held_of in Hk. cbn [mheld set_pool] in Hk.
        destruct (Nat.eq_dec l i) as [->|Hne]; auto. rewrite nth_upd_other_d in Hk by auto. eapply H7; eauto.
      * intros k Hk. rewrite app_length. simpl. cbn [app] in Hk.
        apply (Permutation_in _ (somes_upd_some _ _ _ Hnl)) in Hk. destruct Hk as [<-|Hk]; [lia|].
        specialize (H8 k). simpl in H8. specialize (H8 Hk). lia.
      * cbn [app]. eapply Permutation_NoDup; [symmetry; apply somes_upd_some; eauto|].
        constructor; [|exact H9].
        intros Hin. specialize (H8 (length (mpb s))). specialize (H8 Hin). lia.
    + unfold held_of. cbn [mheld set_pool]. apply nth_upd_same_d. lia.
    + unfold pb_of. cbn [mpb set_pool]. rewrite app_nth2, Nat.sub_diag by lia. reflexivity.
  - (* a pooled batch, emptied *)
    assert (Hk : k < length (mpb s)) by (apply H8; left; auto).
    split; [|split; [|split; [|repeat split; reflexivity]]].
    + constructor; cbn [mbuf marg mheld mpool mpb mjournal mmem set_pool]; auto.
      * rewrite upd_length; auto.
      * intros k0 x d Hin. unfold pb_of in Hin. cbn [mpb set_pool] in Hin.
        destruct (Nat.eq_dec k k0) as [->|Hne].
        -- rewrite nth_upd_same_d in Hin by auto. contradiction.
        -- rewrite nth_upd_other_d in Hin by auto. eapply H5; eauto.
      * intros i k0 Hk0. unfold held_of in Hk0. cbn [mheld set_pool] in Hk0.
        destruct (Nat.eq_dec l i) as [->|Hne]; auto. rewrite nth_upd_other_d in Hk0 by auto. eapply H7; eauto.
      * intros k0 Hk0. rewrite upd_length. apply H8.
        apply in_app_or in Hk0. destruct Hk0 as [Hk0|Hk0]; [right; apply in_or_app; auto|].
        apply (Permutation_in _ (somes_upd_some _ _ _ Hnl)) in Hk0. destruct Hk0 as [<-|Hk0]; [left; auto|].
        right. apply in_or_app; auto.
      * eapply Permutation_NoDup; [|exact H9].
        simpl. rewrite (somes_upd_some _ _ _ Hnl). apply Permutation_middle.
    + unfold held_of. cbn [mheld set_pool]. apply nth_upd_same_d. lia.
    + unfold pb_of. cbn [mpb set_pool]. apply nth_upd_same_d. auto.
Qed.

(* b.appendRec(kt, key, value) for a writer whose call is in progress *)
Lemma minv_append b s k x : minv_at b s -> in_call (wpc_of b x) = true -> minv_at b (pb_append s k x).
Proof.
  intros M Hc. pose proof M as [H1 H2 H3 H4 H5 H6 H7 H8 H9].
  constructor; cbn [pb_append mbuf marg mheld mpool mpb mjournal mmem set_pool]; auto.
  - intros k0 y d Hin.
    change (pb_of (pb_append s k x) k0) with (nth k0 (upd (mpb s) k (pb_of s k ++ [(x, buf_of s x)])) []) in Hin.
    destruct (nth_upd_cases (mpb s) k k0 (pb_of s k ++ [(x, buf_of s x)]) []) as [E|E]; rewrite E in Hin.
    + apply in_app_or in Hin. destruct Hin as [Hin|[Hin|[]]]; [eapply H5; eauto|].
      inversion Hin; subst. split; [apply H4; auto|]. intros E0. rewrite E0 in Hc. discriminate.
    + eapply H5; eauto.
  - rewrite upd_length. auto.
Qed.

Lemma held_append s k x i : held_of (pb_append s k x) i = held_of s i.
Proof. reflexivity. Qed.

(* putRec once it owns the lock *)
Lemma minv_own_put b s i : minv_at b s -> i < length (ws b) -> held_of s i = None -> owns_batch (wpc_of b i) ->
  in_call (wpc_of b i) = true -> minv_at b (own_put s i).
Proof.
  intros M Hl Hn Ho Hc. unfold own_put. destruct (wput_of (mb s) i); auto.
  destruct (minv_take b s i M Hl Hn Ho) as (M1 & _). destruct (pb_take s i) as [s1 k]. cbn [fst] in M1.
  apply minv_append; auto.
Qed.

(* defer db.batchPool.Put(ourBatch) *)
Lemma minv_giveback b s l : minv_at b s -> minv_at b (pb_giveback s l) /\ held_of (pb_giveback s l) l = None.
Proof.
  intros M. pose proof M as [H1 H2 H3 H4 H5 H6 H7 H8 H9]. unfold pb_giveback.
  destruct (held_of s l) eqn:Eh; [|auto].
  assert (Hnl : nth_error (mheld s) l = Some (Some n)) by (apply nth_error_nth_some; auto).
  assert (Hl : l < length (mheld s)) by (apply nth_error_Some; congruence).
  split.
  - constructor; cbn [mbuf marg mheld mpool mpb mjournal mmem set_pool]; auto.
    + rewrite upd_length; auto.
    + intros i k Hk. unfold held_of in Hk. cbn [mheld set_pool] in Hk.
      destruct (Nat.eq_dec l i) as [->|Hne]; [rewrite nth_upd_same_d in Hk by auto; discriminate|].
      rewrite nth_upd_other_d in Hk by auto. eapply H7; eauto.
    + intros k Hk. apply H8. simpl in Hk. destruct Hk as [<-|Hk].
      * apply in_or_app. right. apply somes_in. eauto.
      * apply in_app_or in Hk. apply in_or_app. destruct Hk; auto. right. eapply somes_upd_none_incl; eauto.
    + eapply Permutation_NoDup; [|exact H9]. simpl. rewrite (somes_upd_none _ _ _ Hnl). symmetry. apply Permutation_middle.
  - unfold held_of. cbn [mheld set_pool]. apply nth_upd_same_d. auto.
Qed.

(* the pooled batch is dropped (db.flush failed: writeLocked returns before the defer is registered) *)
Lemma minv_drop_held b s l : minv_at b s -> minv_at b (set_pool s (upd (mheld s) l None) (mpool s) (mpb s)).
Proof.
  intros M. pose proof M as [H1 H2 H3 H4 H5 H6 H7 H8 H9].
  constructor; cbn [mbuf marg mheld mpool mpb mjournal mmem set_pool]; auto.
  - rewrite upd_length; auto.
  - intros i k Hk. unfold held_of in Hk. cbn [mheld set_pool] in Hk.
    destruct (nth_upd_cases (mheld s) l i None None) as [E|E]; rewrite E in Hk; [discriminate|]. eapply H7; eauto.
  - intros k Hk. apply H8. apply in_app_or in Hk. apply in_or_app. destruct Hk; auto. right. eapply somes_upd_none_incl; eauto.
  - destruct (nth_error (mheld s) l) as [[k|]|] eqn:E; [|rewrite upd_same; auto..].
    pose proof (somes_upd_none _ _ _ E) as P.
    assert (P2 : Permutation (mpool s ++ somes (mheld s)) (k :: mpool s ++ somes (upd (mheld s) l None))).
    { rewrite P. symmetry. apply Permutation_middle. }
    pose proof (Permutation_NoDup P2 H9) as N. inversion N; auto.
Qed.

(* a walk over the group's batches by a leader that has not reached unlockWrite copies arguments *)
Lemma minv_records mp n s l c : reachable mp n (mb s) -> minv s -> mctx (wpc_of (mb s) l) = Some c ->
  forall x d, In (x, d) (group_records s l c) -> d = arg_of s x /\ wpc_of (mb s) x <> WIdle.
Proof.
  intros R M Hm x d Hin. unfold group_records in Hin. apply in_app_or in Hin. destruct Hin as [Hin|Hin].
  - apply in_map_iff in Hin. destruct Hin as (y & Hy & Hin). inversion Hy; subst. clear Hy.
    unfold batch_owners in Hin. apply filter_In in Hin. destruct Hin as [Hin _].
    pose proof (group_in_call mp n (mb s) l c R Hm x Hin) as Hc.
    split; [apply (mi_call _ _ M); auto|]. intros E0. rewrite E0 in Hc. discriminate.
  - destruct (held_of s l); [|contradiction]. eapply (mi_pb _ _ M); eauto.
Qed.

Lemma minv_logs b s j m g : minv_at b s ->
  (forall x d, In (x, d) g -> d = arg_of s x /\ wpc_of b x <> WIdle) ->
  (forall r, In r (j ++ m) -> In r (mjournal s ++ mmem s) \/ In r g) -> minv_at b (set_logs s j m).
Proof.
  intros [H1 H2 H3 H4 H5 H6 H7 H8 H9] Hg H. constructor; auto.
  intros x d Hin. destruct (H _ Hin); [apply H6|apply Hg]; auto.
Qed.

Lemma late_work_code s l : late_work code_variant s l = s.
Proof. unfold late_work. destruct (wpc_of (mb s) l); reflexivity. Qed.

Lemma minv_init n : minv (minit n).
Proof.
  constructor; cbn [minit mb mbuf marg mheld mpool mpb mjournal mmem WriteMerge.init ws]; rewrite ?repeat_length; auto.
  - intros k x d Hin. unfold pb_of in Hin. simpl in Hin. destruct k; contradiction.
  - intros x d [].
  - intros i k Hk. unfold held_of in Hk. simpl in Hk.
    destruct (nth_in_or_default i (repeat (@None nat) n) None) as [Hi|Hi].
    + apply repeat_spec in Hi. congruence. + congruence.
  - intros k Hk. simpl in Hk. exfalso. induction n; simpl in Hk; auto.
  - simpl. induction n; simpl; auto. constructor.
Qed.

Section Memory.
Variable mp : mparams.

Lemma rebase_step b a b' s : step mp b a = Some b' -> (forall i m p z, a <> ACall i m p z) ->
  minv_at b s -> (forall i, a = AReturn i -> held_of s i = None) -> minv_at b' s.
Proof.
  intros H Hn M Hr. eapply minv_rebase; eauto.
  - eapply step_length; eauto.
  - intros i Hc. destruct (step_in_call mp b a b' i H Hc) as [|(_ & m & p & z & E)]; auto. exfalso. eapply Hn; eauto.
  - intros i. eapply step_not_idle; eauto.
  - intros i k Hk. destruct (step_owns mp b a b' i H (mi_held _ _ M i k Hk)) as [|E]; auto.
    rewrite (Hr i E) in Hk. discriminate.
Qed.

(* putRec of the writer that has just taken the lock *)
Lemma minv_lock_put b a b' s i : step mp b a = Some b' -> a = ASelLock i \/ (exists l, a = AHandover l i) ->
  minv_at b s -> minv_at b' s -> minv_at b' (own_put s i).
Proof.
  intros E Ha M M'. destruct (takes_lock_pcs mp _ _ _ _ E Ha) as (Ho & Hn).
  apply minv_own_put; auto; rewrite ?Hn; try reflexivity.
  - apply wpc_lt. rewrite Hn. discriminate.
  - apply (held_none b s _ M); destruct Ho as [-> | ->]; try reflexivity; discriminate.
  - left. reflexivity.
Qed.

Lemma mstep_minv n s a s' : reachable mp n (mb s) -> minv s -> mstep mp code_variant s a = Some s' ->
  minv s' /\ reachable mp n (mb s').
Proof.
  intros R M H. destruct a as [x|i g|k]; cbn [mstep] in H.
  - (* a protocol action *)
    destruct (step mp (mb s) x) as [b'|] eqn:E; [|discriminate]. inversion H; subst; clear H.
    split; [|eapply reachable_step; eauto]. unfold minv. cbn [mb set_mb]. apply minv_set_mb.
    assert (Generic : (forall i m p z, x <> ACall i m p z) -> (forall i, x <> AReturn i) -> minv_at b' s).
    { intros Hn Hr. eapply rebase_step; eauto. intros i Ei. exfalso. eapply Hr; eauto. }
    (* the walks: what they copy are arguments, by minv_records *)
    assert (Walk : forall l c j m, ctx_of (wpc_of (mb s) l) = Some c ->
              In x [AJournalOk l; AApply l; APublish l] \/ (exists e, x = AJournalFail l e) ->
              (forall r, In r (j ++ m) -> In r (mjournal s ++ mmem s) \/ In r (group_records s l c)) ->
              minv_at b' (set_logs s j m)).
    { intros l c j m Ec Hx Hjm. eapply rebase_step; eauto.
      - intros i m0 p z ->. destruct Hx as [[|[|[|[]]]]|[e ?]]; discriminate.
      - eapply minv_logs; eauto. eapply minv_records; eauto. eapply walk_mctx; eauto.
      - intros i ->. destruct Hx as [[|[|[|[]]]]|[e ?]]; discriminate. }
    destruct x; cbn [meffect]; try (apply Generic; intros; discriminate).
    + (* ACall *)
      pose proof M as [H1 H2 H3 H4 H5 H6 H7 H8 H9].
      assert (Hidle : wpc_of (mb s) i = WIdle /\ i < length (ws (mb s))).
      { rewrite <- (step_length mp _ _ _ E). pose proof (proj2 (step_pc mp _ _ _ E) i) as Mi.
        inversion Mi; subst; [exfalso; cbn [actors In] in *; tauto|].
        split; auto. apply wpc_lt. congruence. }
      destruct Hidle as [Hidle Hlt].
      assert (Harg : forall j, j <> i -> arg_of (set_marg s (upd (marg s) i (buf_of s i))) j = arg_of s j).
      { intros j Hj. unfold arg_of. cbn [marg set_marg]. apply nth_upd_other_d. auto. }
      constructor; cbn [mbuf marg mheld mpool mpb mjournal mmem set_marg]; rewrite ?upd_length;
        rewrite ?(step_length mp _ _ _ E); auto.
      * intros j Hc. destruct (Nat.eq_dec j i) as [->|Hj].
        -- unfold arg_of. cbn [marg set_marg]. rewrite nth_upd_same_d by lia. reflexivity.
        -- rewrite Harg by auto. apply H4.
           destruct (step_in_call mp _ _ _ j E Hc) as [|(_ & m' & p' & z' & Ea)]; auto. inversion Ea. congruence.
      * intros k y d Hin. destruct (H5 k y d Hin) as [Hd Hy].
        assert (y <> i) by congruence. rewrite Harg by auto. split; auto. eapply step_not_idle; eauto.
      * intros y d Hin. destruct (H6 y d Hin) as [Hd Hy].
        assert (y <> i) by congruence. rewrite Harg by auto. split; auto. eapply step_not_idle; eauto.
      * intros j k Hk. destruct (step_owns mp _ _ _ j E (H7 j k Hk)) as [|Ea]; auto. discriminate.
    + (* ASelMerge *)
      assert (M' : minv_at b' s) by (apply Generic; intros; discriminate).
      destruct (sel_merge_pcs _ _ _ _ _ E) as (Hh & Hi).
      destruct (is_reply (wpc_of b' l) && wput_of (mb s) i); auto.
      destruct (held_of s l) eqn:Eh.
      * apply minv_append; auto. rewrite Hi. reflexivity.
      * destruct (minv_take b' s l M') as (M1 & _); auto; [apply wpc_lt; intros E0; rewrite E0 in Hh; discriminate|left; auto|].
        destruct (pb_take s l) as [s1 k]. cbn [fst] in M1. apply minv_append; auto. rewrite Hi. reflexivity.
    + (* ASelLock *)
      eapply minv_lock_put; eauto. apply Generic; intros; discriminate.
    + (* AFlushFail *)
      eapply rebase_step; eauto; try (intros; discriminate). apply minv_drop_held. auto.
    + (* AJournalOk *)
      destruct (ctx_of (wpc_of (mb s) l)) eqn:Ec; [|apply Generic; intros; discriminate]. cbn [v_journal_late code_variant].
      eapply Walk; cbn [In]; eauto. intros r. rewrite !in_app_iff. tauto.
    + (* AJournalFail *)
      destruct (ctx_of (wpc_of (mb s) l)) eqn:Ec; [|apply Generic; intros; discriminate]. cbn [v_journal_late code_variant].
      eapply Walk; eauto. intros r. rewrite !in_app_iff. tauto.
    + (* AApply *)
      destruct (ctx_of (wpc_of (mb s) l)) eqn:Ec; [|apply Generic; intros; discriminate]. cbn [v_apply_late code_variant].
      eapply Walk; cbn [In]; eauto. intros r. rewrite !in_app_iff. tauto.
    + (* AHandover *)
      rewrite late_work_code. eapply minv_lock_put; eauto. apply Generic; intros; discriminate.
    + (* ARelease *)
      rewrite late_work_code. apply Generic; intros; discriminate.
    + (* AReturn *)
      destruct (minv_giveback _ _ i M) as [M1 Hn].
      eapply rebase_step; eauto; try (intros; discriminate). intros j Ej. inversion Ej; subst. auto.
  - (* the client overwrites its memory *)
    destruct (getw (mb s) i) as [w|] eqn:Ew; [|discriminate]. destruct (client_turn (pc w)) eqn:Ec; [|discriminate].
    inversion H; subst; clear H. split; [|exact R]. unfold minv in *. cbn [mb set_mbuf].
    pose proof M as [H1 H2 H3 H4 H5 H6 H7 H8 H9].
    constructor; cbn [mbuf marg mheld mpool mpb mjournal mmem set_mbuf]; rewrite ?upd_length; auto.
    intros j Hc. unfold buf_of. cbn [mbuf set_mbuf]. rewrite nth_upd_other_d; [apply H4; auto|].
    intros <-. unfold wpc_of in Hc. rewrite Ew in Hc. destruct (pc w); simpl in *; discriminate.
  - (* sync.Pool drops an item *)
    destruct (k <? length (mpool s)) eqn:Ek; [|discriminate]. apply Nat.ltb_lt in Ek.
    inversion H; subst; clear H. split; [|exact R]. unfold minv in *. cbn [mb set_pool].
    pose proof M as [H1 H2 H3 H4 H5 H6 H7 H8 H9].
    pose proof (ListLemmas.split_nth (mpool s) k 0 Ek) as Ep.
    constructor; cbn [mbuf marg mheld mpool mpb mjournal mmem set_pool]; auto.
    + intros j Hj. apply H8. rewrite Ep. rewrite <- app_assoc in Hj. rewrite <- app_assoc.
      apply in_app_or in Hj. apply in_or_app. destruct Hj as [Hj|Hj]; auto. right. simpl. right. auto.
    + rewrite Ep in H9. rewrite <- app_assoc in H9. simpl in H9. apply NoDup_remove_1 in H9.
      rewrite <- app_assoc. exact H9.
Qed.

Lemma mrun_minv n l : forall s s', reachable mp n (mb s) -> minv s -> mrun mp code_variant s l = Some s' ->
  minv s' /\ reachable mp n (mb s').
Proof.
  induction l; simpl; intros s s' R M H.
  - inversion H; subst; auto.
  - destruct (mstep mp code_variant s a) eqn:E; [|discriminate].
    destruct (mstep_minv n _ _ _ R M E). eauto.
Qed.

Lemma mreachable_minv n s : mreachable mp code_variant n s -> minv s /\ reachable mp n (mb s).
Proof.
  intros [l H]. eapply mrun_minv; eauto; [exists []; reflexivity|apply minv_init].
Qed.

(* whatever the clients scribble once their calls returned, every copy the DB made (journal record, write
   buffer) is a copy of what its caller passed when it made the call *)
Theorem copies_are_args_inv n s : mreachable mp code_variant n s -> copies_are_args s.
Proof.
  intros R x d Hin. destruct (mreachable_minv n s R) as [M _]. apply (mi_logs _ _ M x d Hin).
Qed.

(* a pooled batch is in the pool or belongs to exactly one writeLocked frame *)
Theorem pooled_single_owner n s : mreachable mp code_variant n s -> pooled_batches_single_owner s.
Proof. intros R. destruct (mreachable_minv n s R) as [M _]. apply (mi_nodup _ _ M). Qed.

End Memory.

Definition mp_code : mparams := {| mergeThreshold := 131072; mergeBigLimit := 1048576; mergeSmallLimit := 131072 |}.

(* writer 0 leads through Write, writer 1 is merged through Write; 1 is acknowledged, returns, and overwrites its
   batch with [9]; then the leader leaves unlockWrite *)
Definition m6_trace : list maction :=
  [MScribble 0 [1%N]; MScribble 1 [2%N];
   MBase (ACall 0 true false 10%N); MBase (ACall 1 true false 10%N);
   MBase (ASelLock 0); MBase (AFlushOk 0 1000%N); MBase (ASelMerge 1 0); MBase (AReplyTrue 0 1); MBase (AMergeDone 0);
   MBase (AJournalOk 0); MBase (AApply 0); MBase (APublish 0); MBase (ARotateSkip 0);
   MBase (AAck 0 1); MBase (AReturn 1); MScribble 1 [9%N]; MBase (ARelease 0); MBase (AReturn 0)].

Definition m6_variant : mvariant := {| v_apply_late := true; v_journal_late := false |}.
Definition lazy_journal_variant : mvariant := {| v_apply_late := false; v_journal_late := true |}.

Definition logs_of (v : mvariant) (tr : list maction) : option (list (nat * bytes) * list (nat * bytes) * list bytes) :=
  match mrun mp_code v (minit 2) tr with
  | Some s => Some (mjournal s, mmem s, marg s)
  | None => None
  end.

(* the code: both copies of writer 1's batch hold what it passed *)
Lemma m6_trace_code :
  logs_of code_variant m6_trace = Some ([(0, [1%N]); (1, [2%N])], [(0, [1%N]); (1, [2%N])], [[1%N]; [2%N]]).
Proof. vm_compute. reflexivity. Qed.

(* a run whose logs hold, for some writer, bytes other than its argument *)
Lemma logs_refute v tr j m g x d : logs_of v tr = Some (j, m, g) -> In (x, d) (j ++ m) -> d <> nth x g [] ->
  exists n tr s, mrun mp_code v (minit n) tr = Some s /\ ~ copies_are_args s.
Proof.
  unfold logs_of. intros E Hin Hd. exists 2, tr. destruct (mrun mp_code v (minit 2) tr) as [s|]; [|discriminate].
  exists s. split; auto. inversion E; subst. intros H. exact (Hd (H x d Hin)).
Qed.

(* merged writers acknowledged before putMem (m6_variant): the write buffer receives what the client wrote AFTER its call
   returned *)
Theorem ack_before_putmem_refuted :
  exists n tr s, mrun mp_code m6_variant (minit n) tr = Some s /\ ~ copies_are_args s.
Proof.
  apply (logs_refute m6_variant m6_trace [(0, [1%N]); (1, [2%N])] [(0, [1%N]); (1, [9%N])] [[1%N]; [2%N]] 1 [9%N]).
  - vm_compute. reflexivity.
  - simpl. auto.
  - discriminate.
Qed.

(* the journal record buffer filled lazily: the journal receives the scribbled bytes *)
Theorem lazy_journal_refuted :
  exists n tr s, mrun mp_code lazy_journal_variant (minit n) tr = Some s /\ ~ copies_are_args s.
Proof.
  apply (logs_refute lazy_journal_variant m6_trace [(0, [1%N]); (1, [9%N])] [(0, [1%N]); (1, [2%N])] [[1%N]; [2%N]] 1 [9%N]).
  - vm_compute. reflexivity.
  - simpl. auto.
  - discriminate.
Qed.

(* non-vacuity of reads_in_call: in that run the leader does read writer 1's batch while 1 waits for its acknowledgement *)
Lemma m6_trace_reads :
  match mrun mp_code code_variant (minit 2) (firstn 9 m6_trace) with
  | Some s => mreads (mb s) (AJournalOk 0) = [0; 1] /\ wpc_of (mb s) 1 = WWaitAck
  | None => False
  end.
Proof. vm_compute. split; reflexivity. Qed.

(* Put/Delete callers: the leader (through putRec) takes a pooled batch and copies its own key/value in; the merged
   Put's key/value are copied into the same batch when the request is received, before the reply; the journal and
   putMem walks read no caller memory at all, and the pooled batch goes back to the pool when writeLocked returns *)
Definition put_trace : list maction :=
  [MScribble 0 [1%N]; MScribble 1 [2%N];
   MBase (ACall 0 true true 10%N); MBase (ACall 1 true true 10%N);
   MBase (ASelLock 0); MBase (AFlushOk 0 1000%N); MBase (ASelMerge 1 0); MBase (AReplyTrue 0 1); MBase (AMergeDone 0);
   MBase (AJournalOk 0); MBase (AApply 0); MBase (APublish 0); MBase (ARotateSkip 0);
   MBase (AAck 0 1); MBase (AReturn 1); MScribble 1 [9%N]; MBase (ARelease 0); MBase (AReturn 0)].

Lemma put_trace_code :
  match mrun mp_code code_variant (minit 2) put_trace with
  | Some s => mjournal s = [(0, [1%N]); (1, [2%N])] /\ mmem s = [(0, [1%N]); (1, [2%N])] /\ mpool s = [0] /\ mheld s = [None; None]
  | None => False
  end
  /\ match mrun mp_code code_variant (minit 2) (firstn 9 put_trace) with
     | Some s => mreads (mb s) (AJournalOk 0) = [] /\ mheld s = [Some 0; None] /\ mpb s = [[(0, [1%N]); (1, [2%N])]]
     | None => False
     end.
Proof. vm_compute. repeat split; reflexivity. Qed.
