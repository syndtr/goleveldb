(* Alias/InvProofs.v — the invariant of the ownership model, the relation to the plain-map
   specification, and their frame lemmas (what a change of the heap/state that leaves a class of
   cells alone preserves). *)
From GL Require Import Alias.Heap Alias.AliasModel Alias.HeapProofs Alias.ContentProofs.
From Coq Require Import Arith Lia.
Local Open Scope nat_scope.

Definition own (h : heap) (l : loc) (o : owner) : Prop := hown h l = Some o.
Definition ref_in (h : heap) (r : ref) : Prop := roff r + rlen r <= length (hget h (rloc r)).

(* cells a block read juggles with *)
Definition blockish (o : owner) : bool := match o with Pool | Cache | DB KBlock => true | _ => false end.
Definition nonblock (o : owner) : bool := negb (blockish o).

(* h' has every cell of h whose owner satisfies P, unchanged *)
Definition keep (P : owner -> bool) (h h' : heap) : Prop :=
  length h <= length h' /\ forall l c, nth_error h l = Some c -> P (cown c) = true -> nth_error h' l = Some c.

(* write-buffer arenas only grow *)
Definition memgrow (h h' : heap) : Prop :=
  length h <= length h' /\
  forall l, own h l (DB KMem) -> own h' l (DB KMem) /\ exists x, hget h' l = hget h l ++ x.

Lemma keep_refl P h : keep P h h.
Proof. split; auto. Qed.

Lemma keep_trans P h1 h2 h3 : keep P h1 h2 -> keep P h2 h3 -> keep P h1 h3.
Proof. intros [L1 K1] [L2 K2]. split; [lia|]. intros l c H HP. apply K2; auto. Qed.

Lemma keep_weaken (P Q : owner -> bool) h h' : (forall o, Q o = true -> P o = true) -> keep P h h' -> keep Q h h'.
Proof. intros HQ [L K]. split; auto. Qed.

Lemma keep_own P h h' l o : keep P h h' -> own h l o -> P o = true -> own h' l o.
Proof.
  intros [_ K] H HP. unfold own, hown in *. destruct (nth_error h l) eqn:E; try discriminate.
  injection H as H. subst o. rewrite (K _ _ E HP). auto.
Qed.

Lemma keep_get P h h' l o : keep P h h' -> own h l o -> P o = true -> hget h' l = hget h l.
Proof.
  intros [_ K] H HP. unfold own, hown, hget in *. destruct (nth_error h l) eqn:E; try discriminate.
  injection H as H. subst o. rewrite (K _ _ E HP). auto.
Qed.

Lemma memgrow_refl h : memgrow h h.
Proof. split; auto. intros l H. split; auto. exists []. rewrite app_nil_r; auto. Qed.

(* the cells of owner o keep their owner and are only appended to *)
Definition grows (o : owner) (h h' : heap) : Prop :=
  forall l, own h l o -> own h' l o /\ exists x, hget h' l = hget h l ++ x.

Lemma grows_trans o h1 h2 h3 : grows o h1 h2 -> grows o h2 h3 -> grows o h1 h3.
Proof.
  intros G1 G2 l H. destruct (G1 l H) as [H2 [x Hx]]. destruct (G2 l H2) as [H3 [y Hy]]. split; auto.
  exists (x ++ y). rewrite Hy, Hx, app_assoc. auto.
Qed.

Lemma keep_grows P o h h' : P o = true -> keep P h h' -> grows o h h'.
Proof.
  intros HP K l H. split.
  - eapply keep_own; eauto.
  - exists []. rewrite app_nil_r. eapply keep_get; eauto.
Qed.

Lemma memgrow_trans h1 h2 h3 : memgrow h1 h2 -> memgrow h2 h3 -> memgrow h1 h3.
Proof. intros [L1 G1] [L2 G2]. split; [lia|exact (grows_trans _ _ _ _ G1 G2)]. Qed.

Lemma keep_memgrow P h h' : P (DB KMem) = true -> keep P h h' -> memgrow h h'.
Proof. intros HP K. split; [apply K|exact (keep_grows P _ h h' HP K)]. Qed.

Lemma keep_alloc P h b o : keep P h (fst (halloc h b o)).
Proof.
  split.
  - rewrite halloc_length. lia.
  - intros l c H _. unfold halloc; simpl. apply nth_error_app_some; auto.
Qed.

Lemma keep_hupd P h l f o : own h l o -> P o = false -> keep P h (hupd h l f).
Proof.
  intros H HP. split.
  - rewrite hupd_length. lia.
  - intros l' c Hc HPc. destruct (Nat.eq_dec l l') as [->|N].
    + unfold own, hown in H. rewrite Hc in H. injection H as H. congruence.
    + rewrite hupd_other; auto.
Qed.

Lemma keep_hset P h l b o : own h l o -> P o = false -> keep P h (hset h l b).
Proof. apply keep_hupd. Qed.
Lemma keep_hchown P h l o' o : own h l o -> P o = false -> keep P h (hchown h l o').
Proof. apply keep_hupd. Qed.

Lemma memgrow_happend h l b : memgrow h (happend h l b).
Proof.
  unfold happend. split.
  - rewrite hset_length. lia.
  - intros l' H. split.
    + unfold own. rewrite hown_hset. auto.
    + destruct (Nat.eq_dec l l') as [->|N].
      * exists b. rewrite hget_hset_same; auto. eapply hown_lt; eauto.
      * exists []. rewrite hget_hset_other, app_nil_r; auto.
Qed.

Lemma own_hset h l b l' o : own (hset h l b) l' o <-> own h l' o.
Proof. unfold own. rewrite hown_hset. tauto. Qed.

Lemma own_hchown_same h l o o' : own h l o -> own (hchown h l o') l o'.
Proof. intros H. apply hown_hchown_same. eapply hown_lt; eauto. Qed.

Lemma own_hchown_other h l o' l' o : l <> l' -> own h l' o -> own (hchown h l o') l' o.
Proof. intros N H. unfold own. rewrite hown_hchown_other; auto. Qed.

Lemma own_hchown_diff h l o o' l' o2 : own h l o -> own h l' o2 -> o <> o2 -> own (hchown h l o') l' o2.
Proof. intros O O2 N. apply own_hchown_other; auto. intros ->. apply N. unfold own in *. congruence. Qed.

Lemma own_lt h l o : own h l o -> l < length h.
Proof. apply hown_lt. Qed.

Lemma own_diff h l l' o o' : own h l o -> own h l' o' -> o <> o' -> l <> l'.
Proof. unfold own. intros H1 H2 N E. subst. congruence. Qed.

Lemma own_alloc_old h b o l o' : own h l o' -> own (fst (halloc h b o)) l o'.
Proof. intros H. unfold own. rewrite hown_alloc_old; auto. eapply own_lt; eauto. Qed.

Lemma own_alloc_new h b o : own (fst (halloc h b o)) (length h) o.
Proof. apply hown_alloc_new. Qed.

Lemma own_fun h l o o' : own h l o -> own h l o' -> o = o'.
Proof. unfold own. congruence. Qed.

Definition ment_ok (h : heap) (kv : loc) (e : ment) : Prop :=
  rloc (mk e) = kv /\ rloc (mv e) = kv /\ ref_in h (mk e) /\ ref_in h (mv e).
Definition memdb_ok (h : heap) (m : memdb) : Prop :=
  own h (mkv m) (DB KMem) /\ Forall (ment_ok h (mkv m)) (mds m).
Definition omemdb_ok (h : heap) (om : option memdb) : Prop :=
  match om with Some m => memdb_ok h m | None => True end.

Definition cache_ok (s : state) : Prop :=
  NoDup (map snd (cache s)) /\
  forall tid bi l, In (tid, bi, l) (cache s) ->
    own (hp s) l Cache /\ exists fb, file_block s tid bi = Some fb /\ hget (hp s) l = fimg fb.
Definition pool_ok (s : state) : Prop :=
  NoDup (pool s) /\ forall l, In l (pool s) -> own (hp s) l Pool.
Definition blockinv (c : config) (s : state) : Prop :=
  cache_ok s /\ pool_ok s /\ (cache_on c = false -> cache s = []) /\ (pool_on c = false -> pool s = []).

Definition src_ok (s : state) (x : src) : Prop :=
  match x with
  | SMem e => own (hp s) (rloc (mk e)) (DB KMem) /\ ment_ok (hp s) (rloc (mk e)) e
  | STab tid bi d => exists fb, file_block s tid bi = Some fb
  end.

Definition iter_ok (s : state) (it : iter) : Prop :=
  own (hp s) (ikbuf it) (DB KIter) /\ own (hp s) (ivbuf it) (DB KIter) /\
  rloc (iexk it) = ikbuf it /\ rloc (iexv it) = ivbuf it /\
  Forall (fun x => src_ok s (snd x)) (isrcs it).

Definition iter_bufs (its : list iter) : list loc := flat_map (fun it => [ikbuf it; ivbuf it]) its.

Definition iters_ok (s : state) : Prop := Forall (iter_ok s) (iters s) /\ NoDup (iter_bufs (iters s)).

Definition txn_tabs (s : state) : list nat := match txn s with Some t => ttabs t | None => [] end.

Definition tids_ok (s : state) : Prop :=
  forall t, In t (l0 s ++ deep s ++ txn_tabs s) -> t < length (files s).

Definition cbatch_ok (s : state) : Prop :=
  match cbatch s with
  | None => True
  | Some (bl, recs) => own (hp s) bl ClientBatch /\ Forall (ment_ok (hp s) bl) recs
  end.

Definition empty_mems (s : state) : Prop :=
  mds (mem s) = [] /\ match frozen s with Some m => mds m = [] | None => True end.

Record Inv (c : config) (s : state) : Prop := {
  i_cvis : forall r, In r (cvis s) -> own (hp s) (rloc r) Client;
  i_mem : memdb_ok (hp s) (mem s);
  i_frozen : omemdb_ok (hp s) (frozen s);
  i_txn : omemdb_ok (hp s) (option_map tmem (txn s));
  i_block : blockinv c s;
  i_wbatch : own (hp s) (wbatch s) (DB KBatch);
  i_iters : iters_ok s;
  i_tids : tids_ok s;
  i_cbatch : cbatch_ok s;
  i_txnq : txn s <> None -> empty_mems s
}.

Definition tab_file_content (s : state) (tid : nat) : amap :=
  match nth_error (files s) tid with Some t => tab_content t | None => [] end.
Definition ocontent (h : heap) (om : option memdb) : amap :=
  match om with Some m => mem_content h m | None => [] end.
Definition tabs_content (s : state) (tids : list nat) : amap := flat_map (tab_file_content s) tids.
Definition content (s : state) : amap :=
  mem_content (hp s) (mem s) ++ ocontent (hp s) (frozen s) ++ tabs_content s (l0 s ++ deep s).
Definition txn_content (s : state) (t : txnst) : amap :=
  mem_content (hp s) (tmem t) ++ tabs_content s (ttabs t) ++ content s.

Definition src_key (s : state) (x : src) : bytes :=
  match x with
  | SMem e => deref (hp s) (mk e)
  | STab tid bi d => match file_block s tid bi with Some fb => dkey (fimg fb) d | None => [] end
  end.
Definition src_val (s : state) (x : src) : bytes :=
  match x with
  | SMem e => deref (hp s) (mv e)
  | STab tid bi d => match file_block s tid bi with Some fb => sub (fimg fb) (voff d) (vlen d) | None => [] end
  end.

Definition iter_rel (s : state) (it : iter) (si : siter) : Prop :=
  ilive it = slive si /\ ipos it = spos si /\
  pmap (src_val s) (isrcs it) = slist si /\
  Forall (fun x => src_key s (snd x) = fst x) (isrcs it) /\
  (forall p k v, ipos it = Some p -> nth_error (slist si) p = Some (k, v) ->
                 deref (hp s) (iexk it) = k /\ deref (hp s) (iexv it) = v).

Record Rel (s : state) (sp : sstate) : Prop := {
  r_base : lookup_eq (content s) (sbase sp);
  r_txn : match txn s, stxn sp with
          | None, None => True
          | Some t, Some ov => lookup_eq (txn_content s t) ov
          | _, _ => False
          end;
  r_bat : match cbatch s with
          | None => sbat sp = []
          | Some (bl, recs) => mem_content (hp s) {| mkv := bl; mds := recs |} = sbat sp
          end;
  r_its : Forall2 (iter_rel s) (iters s) (sits sp)
}.

Lemma ment_ok_grows o h h' bl e : grows o h h' -> own h bl o -> ment_ok h bl e -> ment_ok h' bl e.
Proof.
  intros G H (E1 & E2 & R1 & R2). destruct (G _ H) as [_ [x Hx]].
  repeat split; auto; unfold ref_in in *; rewrite ?E1, ?E2 in *; rewrite Hx, app_length; lia.
Qed.

Lemma content_grows o h h' bl recs :
  grows o h h' -> own h bl o -> Forall (ment_ok h bl) recs ->
  mem_content h' {| mkv := bl; mds := recs |} = mem_content h {| mkv := bl; mds := recs |}.
Proof.
  intros G H F. destruct (G _ H) as [_ [x Hx]]. unfold mem_content; simpl. apply map_ext_in. intros e He.
  eapply Forall_forall in F; eauto. destruct F as (E1 & E2 & R1 & R2).
  unfold deref, ref_in in *. rewrite E1, E2 in *. rewrite Hx, !sub_app; auto.
Qed.

Lemma deref_grow h h' r : memgrow h h' -> own h (rloc r) (DB KMem) -> ref_in h r -> deref h' r = deref h r.
Proof.
  intros [_ G] H R. destruct (G _ H) as [_ [x Hx]]. unfold deref. rewrite Hx. apply sub_app. exact R.
Qed.

Lemma ment_ok_grow h h' kv e : memgrow h h' -> own h kv (DB KMem) -> ment_ok h kv e -> ment_ok h' kv e.
Proof. intros [_ G]. exact (ment_ok_grows _ h h' kv e G). Qed.

Lemma memdb_ok_grow h h' m : memgrow h h' -> memdb_ok h m -> memdb_ok h' m.
Proof.
  intros G [H F]. split.
  - apply G; auto.
  - eapply Forall_impl; [|exact F]. intros e He. eapply ment_ok_grow; eauto.
Qed.

Lemma omemdb_ok_grow h h' m : memgrow h h' -> omemdb_ok h m -> omemdb_ok h' m.
Proof. destruct m; simpl; auto. apply memdb_ok_grow. Qed.

Lemma mem_content_grow h h' m : memgrow h h' -> memdb_ok h m -> mem_content h' m = mem_content h m.
Proof. intros [_ G] [H F]. destruct m as [bl recs]. exact (content_grows _ h h' bl recs G H F). Qed.

Lemma ocontent_grow h h' m : memgrow h h' -> omemdb_ok h m -> ocontent h' m = ocontent h m.
Proof. destruct m; simpl; auto. apply mem_content_grow. Qed.

(* records of a batch under construction: same shape, owner ClientBatch *)
Definition batgrow (h h' : heap) : Prop :=
  forall l, own h l ClientBatch -> own h' l ClientBatch /\ exists x, hget h' l = hget h l ++ x.

Lemma keep_batgrow P h h' : P ClientBatch = true -> keep P h h' -> batgrow h h'.
Proof. exact (keep_grows P ClientBatch h h'). Qed.

Lemma bat_ment_ok_grow h h' bl e : batgrow h h' -> own h bl ClientBatch -> ment_ok h bl e -> ment_ok h' bl e.
Proof. exact (ment_ok_grows ClientBatch h h' bl e). Qed.

Lemma bat_content_grow h h' bl recs :
  batgrow h h' -> own h bl ClientBatch -> Forall (ment_ok h bl) recs ->
  mem_content h' {| mkv := bl; mds := recs |} = mem_content h {| mkv := bl; mds := recs |}.
Proof. exact (content_grows ClientBatch h h' bl recs). Qed.

Lemma cbatch_ok_grow s s' : batgrow (hp s) (hp s') -> cbatch s' = cbatch s -> cbatch_ok s -> cbatch_ok s'.
Proof.
  intros G E CB. unfold cbatch_ok in *. rewrite E. destruct (cbatch s) as [[bl recs]|]; auto.
  destruct CB as [O F]. split.
  - apply G; exact O.
  - eapply Forall_impl; [|exact F]. intros e He. eapply bat_ment_ok_grow; eauto.
Qed.

Definition files_ext (s s' : state) : Prop := exists x, files s' = files s ++ x.

Lemma files_ext_refl s : files_ext s s.
Proof. exists []. rewrite app_nil_r; auto. Qed.

Lemma file_block_ext s s' tid bi fb : files_ext s s' -> file_block s tid bi = Some fb -> file_block s' tid bi = Some fb.
Proof.
  intros [x E] H. unfold file_block in *. rewrite E.
  destruct (nth_error (files s) tid) eqn:F; try discriminate.
  rewrite (nth_error_app_some _ _ _ _ F). auto.
Qed.

Lemma tab_file_content_ext s s' tid : files_ext s s' -> tid < length (files s) -> tab_file_content s' tid = tab_file_content s tid.
Proof.
  intros [x E] H. unfold tab_file_content. rewrite E, nth_error_app1; auto.
Qed.

Lemma tabs_content_ext s s' tids :
  files_ext s s' -> (forall t, In t tids -> t < length (files s)) -> tabs_content s' tids = tabs_content s tids.
Proof.
  intros E H. unfold tabs_content. induction tids as [|t ts IH]; simpl; auto.
  rewrite (tab_file_content_ext s s'); auto; [|apply H; simpl; auto].
  rewrite IH; auto. intros; apply H; simpl; auto.
Qed.

Lemma cache_ok_frame s s' :
  cache_ok s -> keep blockish (hp s) (hp s') -> cache s' = cache s -> files_ext s s' -> cache_ok s'.
Proof.
  intros [N C] K Ec Ef. split; rewrite Ec; auto.
  intros tid bi l H. destruct (C _ _ _ H) as [O [fb [F G]]]. split.
  - eapply keep_own; eauto.
  - exists fb. split; [eapply file_block_ext; eauto|]. rewrite <- G. eapply keep_get; eauto.
Qed.

Lemma pool_ok_frame s s' : pool_ok s -> keep blockish (hp s) (hp s') -> pool s' = pool s -> pool_ok s'.
Proof.
  intros [N P] K E. split; rewrite E; auto. intros l H. eapply keep_own; eauto.
Qed.

Lemma blockinv_frame c s s' :
  blockinv c s -> keep blockish (hp s) (hp s') -> cache s' = cache s -> pool s' = pool s -> files_ext s s' -> blockinv c s'.
Proof.
  intros (C & P & E1 & E2) K Ec Ep Ef. split; [|split; [|split]].
  - eapply cache_ok_frame; eauto.
  - eapply pool_ok_frame; eauto.
  - rewrite Ec; auto.
  - rewrite Ep; auto.
Qed.

Lemma src_ok_frame s s' x : memgrow (hp s) (hp s') -> files_ext s s' -> src_ok s x -> src_ok s' x.
Proof.
  intros G Ef. destruct x as [e|tid bi d]; simpl.
  - intros [O M]. split; [apply G; auto|]. eapply ment_ok_grow; eauto.
  - intros [fb F]. exists fb. eapply file_block_ext; eauto.
Qed.

Definition iterbufs_kept (s s' : state) : Prop :=
  forall l, own (hp s) l (DB KIter) -> own (hp s') l (DB KIter) /\ hget (hp s') l = hget (hp s) l.

Lemma keep_iterbufs P s s' : P (DB KIter) = true -> keep P (hp s) (hp s') -> iterbufs_kept s s'.
Proof. intros HP K l H. split; [eapply keep_own|eapply keep_get]; eauto. Qed.

Definition bufs_kept (s s' : state) (it : iter) : Prop :=
  (own (hp s') (ikbuf it) (DB KIter) /\ hget (hp s') (ikbuf it) = hget (hp s) (ikbuf it)) /\
  (own (hp s') (ivbuf it) (DB KIter) /\ hget (hp s') (ivbuf it) = hget (hp s) (ivbuf it)).

Lemma iterbufs_bufs_kept s s' it : iterbufs_kept s s' -> iter_ok s it -> bufs_kept s s' it.
Proof. intros K (O1 & O2 & _). split; apply K; auto. Qed.

Lemma iter_ok_frame1 s s' it :
  memgrow (hp s) (hp s') -> bufs_kept s s' it -> files_ext s s' -> iter_ok s it -> iter_ok s' it.
Proof.
  intros G [[K1 _] [K2 _]] Ef (O1 & O2 & E1 & E2 & F). repeat split; auto.
  eapply Forall_impl; [|exact F]. intros x Hx. eapply src_ok_frame; eauto.
Qed.

Lemma iter_ok_frame s s' it :
  memgrow (hp s) (hp s') -> iterbufs_kept s s' -> files_ext s s' -> iter_ok s it -> iter_ok s' it.
Proof. intros G K Ef I. eapply iter_ok_frame1; eauto. apply iterbufs_bufs_kept; auto. Qed.

Lemma iters_ok_frame s s' :
  memgrow (hp s) (hp s') -> iterbufs_kept s s' -> files_ext s s' -> iters s' = iters s -> iters_ok s -> iters_ok s'.
Proof.
  intros G K Ef Ei [F N]. split; rewrite Ei; auto.
  eapply Forall_impl; [|exact F]. intros it Hit. eapply iter_ok_frame; eauto.
Qed.

Lemma src_key_frame s s' x : memgrow (hp s) (hp s') -> files_ext s s' -> src_ok s x -> src_key s' x = src_key s x.
Proof.
  intros G Ef. destruct x as [e|tid bi d]; simpl.
  - intros [O (E1 & E2 & R1 & R2)]. apply deref_grow; auto.
  - intros [fb F]. rewrite F, (file_block_ext s s' _ _ _ Ef F). auto.
Qed.

Lemma src_val_frame s s' x : memgrow (hp s) (hp s') -> files_ext s s' -> src_ok s x -> src_val s' x = src_val s x.
Proof.
  intros G Ef. destruct x as [e|tid bi d]; simpl.
  - intros [O (E1 & E2 & R1 & R2)]. apply deref_grow; auto. congruence.
  - intros [fb F]. rewrite F, (file_block_ext s s' _ _ _ Ef F). auto.
Qed.

Lemma iter_rel_frame1 s s' it si :
  memgrow (hp s) (hp s') -> bufs_kept s s' it -> files_ext s s' -> iter_ok s it ->
  iter_rel s it si -> iter_rel s' it si.
Proof.
  intros G [[_ K1] [_ K2]] Ef (O1 & O2 & E1 & E2 & F) (L & P & S & Ks & X).
  split; [auto|]. split; [auto|]. split; [|split].
  - rewrite <- S. apply pmap_ext. intros x Hx. eapply Forall_forall in F; eauto. eapply src_val_frame; eauto.
  - apply Forall_forall. intros x Hx. rewrite src_key_frame with (s := s); auto.
    + eapply Forall_forall in Ks; eauto.
    + eapply Forall_forall in F; eauto.
  - intros p k v Hp Hn. destruct (X _ _ _ Hp Hn) as [A1 A2]. split.
    + rewrite <- A1. unfold deref. rewrite E1, K1. auto.
    + rewrite <- A2. unfold deref. rewrite E2, K2. auto.
Qed.

Lemma iter_rel_frame s s' it si :
  memgrow (hp s) (hp s') -> iterbufs_kept s s' -> files_ext s s' -> iter_ok s it ->
  iter_rel s it si -> iter_rel s' it si.
Proof. intros G K Ef I. eapply iter_rel_frame1; eauto. apply iterbufs_bufs_kept; auto. Qed.

Lemma iters_rel_frame s s' sits0 :
  memgrow (hp s) (hp s') -> iterbufs_kept s s' -> files_ext s s' -> iters s' = iters s -> iters_ok s ->
  Forall2 (iter_rel s) (iters s) sits0 -> Forall2 (iter_rel s') (iters s') sits0.
Proof.
  intros G K Ef Ei [F _] R. rewrite Ei. clear Ei.
  induction R; constructor.
  - inversion F; subst. eapply iter_rel_frame; eauto.
  - inversion F; subst. apply IHR; auto.
Qed.

Lemma content_frame s s' :
  memgrow (hp s) (hp s') -> files_ext s s' -> mem s' = mem s -> frozen s' = frozen s -> l0 s' = l0 s -> deep s' = deep s ->
  memdb_ok (hp s) (mem s) -> omemdb_ok (hp s) (frozen s) -> tids_ok s -> content s' = content s.
Proof.
  intros G Ef Em Efz El Ed M Fz T. unfold content. rewrite Em, Efz, El, Ed.
  rewrite (mem_content_grow (hp s) (hp s')), (ocontent_grow (hp s) (hp s')) by auto.
  rewrite (tabs_content_ext s s'); auto.
  intros t Ht. apply T. rewrite app_assoc. apply in_or_app; auto.
Qed.

(* a state change that leaves everything but block buffers, cache, pool and the client's list alone *)
Record quiet (s s' : state) : Prop := {
  q_keep : keep nonblock (hp s) (hp s');
  q_mem : mem s' = mem s;
  q_frozen : frozen s' = frozen s;
  q_files : files s' = files s;
  q_l0 : l0 s' = l0 s;
  q_deep : deep s' = deep s;
  q_wbatch : wbatch s' = wbatch s;
  q_iters : iters s' = iters s;
  q_txn : txn s' = txn s;
  q_cbatch : cbatch s' = cbatch s
}.

Lemma quiet_refl s : quiet s s.
Proof. constructor; auto. apply keep_refl. Qed.

Lemma quiet_trans s1 s2 s3 : quiet s1 s2 -> quiet s2 s3 -> quiet s1 s3.
Proof.
  intros A B. destruct A, B. constructor; try congruence. eapply keep_trans; eauto.
Qed.

Lemma quiet_files_ext s s' : quiet s s' -> files_ext s s'.
Proof. intros Q. exists []. rewrite app_nil_r. apply Q. Qed.

Lemma quiet_memgrow s s' : quiet s s' -> memgrow (hp s) (hp s').
Proof. intros Q. eapply keep_memgrow; [|apply Q]. auto. Qed.

Lemma quiet_iterbufs s s' : quiet s s' -> iterbufs_kept s s'.
Proof. intros Q. eapply keep_iterbufs; [|apply Q]. auto. Qed.

Lemma quiet_file_block s s' tid bi : quiet s s' -> file_block s' tid bi = file_block s tid bi.
Proof. intros Q. unfold file_block. rewrite (q_files _ _ Q). auto. Qed.

Lemma quiet_content s s' c : quiet s s' -> Inv c s -> content s' = content s.
Proof.
  intros Q I. apply content_frame; try apply Q; try apply I.
  - apply quiet_memgrow; auto.
  - apply quiet_files_ext; auto.
Qed.

Lemma quiet_tabs_content s s' tids : quiet s s' -> tabs_content s' tids = tabs_content s tids.
Proof.
  intros Q. unfold tabs_content, tab_file_content. rewrite (q_files _ _ Q). auto.
Qed.

(* Inv and Rel through a quiet change, given the parts that did move *)
Lemma inv_quiet c s s' :
  Inv c s -> quiet s s' -> blockinv c s' -> (forall r, In r (cvis s') -> own (hp s') (rloc r) Client) -> Inv c s'.
Proof.
  intros I Q B V.
  pose proof (quiet_memgrow _ _ Q) as G.
  constructor; auto.
  - rewrite (q_mem _ _ Q). eapply memdb_ok_grow; eauto. apply I.
  - rewrite (q_frozen _ _ Q). eapply omemdb_ok_grow; eauto. apply I.
  - rewrite (q_txn _ _ Q). eapply omemdb_ok_grow; eauto. apply I.
  - rewrite (q_wbatch _ _ Q). eapply keep_own; [apply Q|apply I|auto].
  - eapply iters_ok_frame; eauto; try apply Q; try apply I.
    + apply quiet_iterbufs; auto.
    + apply quiet_files_ext; auto.
  - unfold tids_ok, txn_tabs. rewrite (q_l0 _ _ Q), (q_deep _ _ Q), (q_txn _ _ Q), (q_files _ _ Q). apply I.
  - eapply cbatch_ok_grow; [|exact (q_cbatch _ _ Q)|exact (i_cbatch _ _ I)]. eapply keep_batgrow; [|apply Q]. auto.
  - rewrite (q_txn _ _ Q). intros H. unfold empty_mems. rewrite (q_mem _ _ Q), (q_frozen _ _ Q). apply I; auto.
Qed.

(* the transaction clause and the batch clause of Rel, when the transaction resp. the batch under construction stay *)
Lemma rel_txn_frame c s s' sp : Inv c s -> Rel s sp -> memgrow (hp s) (hp s') -> txn s' = txn s -> content s' = content s ->
  (forall t, txn s = Some t -> tabs_content s' (ttabs t) = tabs_content s (ttabs t)) ->
  match txn s', stxn sp with
  | None, None => True
  | Some t, Some ov => lookup_eq (txn_content s' t) ov
  | _, _ => False
  end.
Proof.
  intros I R G Et Ec Etabs. rewrite Et. pose proof (r_txn _ _ R) as T. pose proof (i_txn _ _ I) as IT.
  destruct (txn s) as [t|]; destruct (stxn sp); auto.
  unfold txn_content in *. rewrite Ec, (Etabs t eq_refl), (mem_content_grow (hp s) (hp s')); auto.
Qed.

Lemma rel_bat_frame c s s' sp : Inv c s -> Rel s sp -> batgrow (hp s) (hp s') -> cbatch s' = cbatch s ->
  match cbatch s' with
  | None => sbat sp = []
  | Some (bl, recs) => mem_content (hp s') {| mkv := bl; mds := recs |} = sbat sp
  end.
Proof.
  intros I R G Ec. rewrite Ec. pose proof (r_bat _ _ R) as B. pose proof (i_cbatch _ _ I) as CB. unfold cbatch_ok in CB.
  destruct (cbatch s) as [[bl recs]|]; auto. destruct CB as [O F]. rewrite <- B. eapply bat_content_grow; eauto.
Qed.

Lemma rel_quiet c s s' sp : Inv c s -> quiet s s' -> Rel s sp -> Rel s' sp.
Proof.
  intros I Q R.
  pose proof (quiet_memgrow _ _ Q) as G.
  constructor.
  - rewrite (quiet_content _ _ _ Q I). apply R.
  - apply (rel_txn_frame c s s' sp I R G (q_txn _ _ Q) (quiet_content _ _ _ Q I)). intros t _. apply quiet_tabs_content; auto.
  - apply (rel_bat_frame c s s' sp I R); [eapply keep_batgrow; [|apply Q]; auto|apply Q].
  - eapply iters_rel_frame; eauto; try apply Q; try apply I; try apply R.
    + apply quiet_iterbufs; auto.
    + apply quiet_files_ext; auto.
Qed.

Lemma quiet_ok c s s' sp : Inv c s -> Rel s sp -> quiet s s' -> blockinv c s' -> cvis s' = cvis s -> Inv c s' /\ Rel s' sp.
Proof.
  intros I R Q B V. split; [|exact (rel_quiet c s s' sp I Q R)].
  apply (inv_quiet c s s' I Q B). rewrite V. intros r Hr. eapply keep_own; [apply Q|apply I; auto|auto].
Qed.

(* cells whose bytes something depends on exactly: block buffers and iterator buffers *)
Definition wk (o : owner) : bool := match o with Pool | Cache | DB KBlock | DB KIter => true | _ => false end.

(* a change of the heap by a write call or a client scribble: arenas and batch buffers grow, block and
   iterator buffers are untouched, no cell changes owner; tables, cache, pool, iterators stay *)
Record wframe (s s' : state) : Prop := {
  w_grow : memgrow (hp s) (hp s');
  w_keep : keep wk (hp s) (hp s');
  w_own : forall l o, own (hp s) l o -> own (hp s') l o;
  w_bat : batgrow (hp s) (hp s');
  w_frozen : frozen s' = frozen s;
  w_files : files s' = files s;
  w_l0 : l0 s' = l0 s;
  w_deep : deep s' = deep s;
  w_cache : cache s' = cache s;
  w_pool : pool s' = pool s;
  w_wbatch : wbatch s' = wbatch s;
  w_iters : iters s' = iters s
}.

Lemma wframe_files_ext s s' : wframe s s' -> files_ext s s'.
Proof. intros W. exists []. rewrite app_nil_r. apply W. Qed.

Lemma wframe_iterbufs s s' : wframe s s' -> iterbufs_kept s s'.
Proof. intros W. eapply keep_iterbufs; [|apply W]. auto. Qed.

Lemma wframe_blockinv c s s' : wframe s s' -> blockinv c s -> blockinv c s'.
Proof.
  intros W B. eapply blockinv_frame; eauto; try apply W.
  - eapply keep_weaken; [|apply W]. intros [| |[]| |]; simpl; auto; discriminate.
  - apply wframe_files_ext; auto.
Qed.

Lemma wframe_tabs_content s s' tids : wframe s s' -> tabs_content s' tids = tabs_content s tids.
Proof. intros W. unfold tabs_content, tab_file_content. rewrite (w_files _ _ W). auto. Qed.

Lemma wframe_iters_ok s s' : wframe s s' -> iters_ok s -> iters_ok s'.
Proof.
  intros W I. apply (iters_ok_frame s s'); auto; try apply W.
  - apply wframe_iterbufs; auto.
  - apply wframe_files_ext; auto.
Qed.

Lemma wframe_iters_rel s s' sits0 :
  wframe s s' -> iters_ok s -> Forall2 (iter_rel s) (iters s) sits0 -> Forall2 (iter_rel s') (iters s') sits0.
Proof.
  intros W I R. apply (iters_rel_frame s s'); auto; try apply W.
  - apply wframe_iterbufs; auto.
  - apply wframe_files_ext; auto.
Qed.

Lemma wframe_cbatch_ok s s' : wframe s s' -> cbatch s' = cbatch s -> cbatch_ok s -> cbatch_ok s'.
Proof.
  intros W. apply cbatch_ok_grow. apply W.
Qed.

Lemma wframe_bat_content s s' bl recs :
  wframe s s' -> own (hp s) bl ClientBatch -> Forall (ment_ok (hp s) bl) recs ->
  mem_content (hp s') {| mkv := bl; mds := recs |} = mem_content (hp s) {| mkv := bl; mds := recs |}.
Proof. intros W O F. eapply bat_content_grow; eauto. apply W. Qed.

(* Inv through a write frame, given the parts that moved *)
Lemma inv_wframe c s s' :
  Inv c s -> wframe s s' ->
  memdb_ok (hp s') (mem s') ->
  omemdb_ok (hp s') (option_map tmem (txn s')) ->
  txn_tabs s' = txn_tabs s ->
  cbatch_ok s' ->
  (forall r, In r (cvis s') -> own (hp s') (rloc r) Client) ->
  (txn s' <> None -> empty_mems s') ->
  Inv c s'.
Proof.
  intros I W M T TT CB V Q. constructor; auto.
  - rewrite (w_frozen _ _ W). eapply omemdb_ok_grow; [apply W|apply I].
  - eapply wframe_blockinv; eauto. apply I.
  - rewrite (w_wbatch _ _ W). apply W. apply I.
  - eapply wframe_iters_ok; eauto. apply I.
  - unfold tids_ok. rewrite TT, (w_l0 _ _ W), (w_deep _ _ W), (w_files _ _ W). apply I.
Qed.

Lemma wframe_ocontent_frozen c s s' : Inv c s -> wframe s s' -> ocontent (hp s') (frozen s') = ocontent (hp s) (frozen s).
Proof. intros I W. rewrite (w_frozen _ _ W). apply ocontent_grow; [apply W|apply I]. Qed.

Lemma Forall2_nth {A B} (R : A -> B -> Prop) l1 l2 i x :
  Forall2 R l1 l2 -> nth_error l1 i = Some x -> exists y, nth_error l2 i = Some y /\ R x y.
Proof.
  intros F. revert i. induction F; intros [|i] Hn; simpl in *; try discriminate.
  - injection Hn as <-. eauto.
  - apply IHF; auto.
Qed.

Lemma Forall2_nth_none {A B} (R : A -> B -> Prop) l1 l2 i :
  Forall2 R l1 l2 -> nth_error l1 i = None -> nth_error l2 i = None.
Proof.
  intros F. revert i. induction F; intros [|i] Hn; simpl in *; try discriminate; auto.
Qed.

Lemma iter_bufs_replace i its it it' :
  nth_error its i = Some it -> ikbuf it' = ikbuf it -> ivbuf it' = ivbuf it ->
  iter_bufs (replace_nth i its it') = iter_bufs its.
Proof.
  revert i. induction its as [|x its IH]; intros [|i] H E1 E2; simpl in *; try discriminate; auto.
  - injection H as ->. rewrite E1, E2. auto.
  - rewrite (IH i); auto.
Qed.
