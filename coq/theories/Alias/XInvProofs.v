(* Alias/XInvProofs.v — the ownership invariant of Alias/XModel.v and its preservation by every step.
   [RInv c b H K]: the buffer manager b is consistent (BInv), every private hold of H owns a distinct buffer tagged
   "block in use", every cache handle of H refers to a node the cache still has, and every claim of K (a client
   visible buffer, an arena, an iterator buffer) has the tag it should have.  H and K are read off the records of a
   state ([all_holds], [claims]); the lemmas are stated for arbitrary H and K so that moving a hold between records
   is a matter of permutations. *)
From Coq Require Import List Arith Lia Permutation.
From GL Require Import Alias.Heap Alias.HeapProofs Alias.AliasModel Alias.XModel Alias.XPoolProofs.
From GL Require Mem.ListLemmas.
Import ListNotations.
Local Open Scope nat_scope.

Definition handle_ok_b (b : bm) (h : hold) : Prop :=
  match h_kind h with
  | HCache => exists n, In n (bca b) /\ n_loc n = h_loc h /\ n_tid n = h_tid h /\ n_bi n = h_bi h
  | HOwn => True
  end.

Definition claim_ok (o : owner) : bool := match o with Client | DB KMem | DB KIter => true | _ => false end.

Record RInv (c : config) (b : bm) (H : list hold) (K : list (loc * owner)) : Prop := {
  r_bm : BInv b;
  r_own : forall h, In h H -> h_kind h = HOwn -> tag b (h_loc h) = Some (DB KBlock);
  r_nd : NoDup (own_locs H);
  r_handle : forall h, In h H -> handle_ok_b b h;
  r_claims : forall l o, In (l, o) K -> tag b l = Some o /\ claim_ok o = true;
  r_nocache : cache_on c = false -> forall h, In h H -> h_kind h = HOwn
}.

Lemma own_locs_in H l : In l (own_locs H) <-> exists h, In h H /\ h_kind h = HOwn /\ h_loc h = l.
Proof.
  unfold own_locs. rewrite in_flat_map. split.
  - intros (h & Hh & Hl). destruct (h_kind h) eqn:E; simpl in Hl; [contradiction|]. destruct Hl as [<-|[]]. eauto.
  - intros (h & Hh & Ek & El). exists h. split; auto. rewrite Ek. left. auto.
Qed.

Lemma own_locs_perm H H' : Permutation H H' -> Permutation (own_locs H) (own_locs H').
Proof.
  unfold own_locs. induction 1; simpl; auto.
  - apply Permutation_app_head. auto.
  - rewrite !app_assoc. apply Permutation_app_tail. apply Permutation_app_comm.
  - etransitivity; eauto.
Qed.

Lemma own_locs_app A B : own_locs (A ++ B) = own_locs A ++ own_locs B.
Proof. unfold own_locs. apply flat_map_app. Qed.

Lemma tags_kept_at b b' X l o : tags_kept b b' X -> tag b l = Some o -> ~ X l -> tag b' l = Some o.
Proof. intros [_ K] Ht Hn. rewrite K; auto. eapply tag_lt; eauto. Qed.

(* an operation that touched only pooled or new locations and kept the nodes *)
Lemma RInv_kept c b b' H K : RInv c b H K -> BInv b' -> tags_kept b b' (was_pool_or_new b) ->
  (forall n, In n (bca b) -> exists n', In n' (bca b') /\ same_node n n') -> RInv c b' H K.
Proof.
  intros [R1 R2 R3 R4 R5 R6] I' T N. constructor; auto.
  - intros h Hh Ek. eapply tags_kept_at; eauto. eapply not_was_pool; eauto. discriminate.
  - intros h Hh. specialize (R4 h Hh). unfold handle_ok_b in *. destruct (h_kind h); auto.
    destruct R4 as (n & Hn & E1 & E2 & E3). destruct (N n Hn) as (n' & Hn' & (S1 & S2 & S3)).
    exists n'. repeat split; auto; congruence.
  - intros l o Hk. destruct (R5 l o Hk) as [Ht Ho]. split; auto. eapply tags_kept_at; eauto.
    eapply not_was_pool; eauto. intros ->. discriminate.
Qed.

Lemma RInv_perm c b H H' K : Permutation H H' -> RInv c b H K -> RInv c b H' K.
Proof.
  intros P [R1 R2 R3 R4 R5 R6]. constructor; auto.
  - intros h Hh. apply R2. eapply Permutation_in; [symmetry|]; eauto.
  - eapply Permutation_NoDup; [apply own_locs_perm|]; eauto.
  - intros h Hh. apply R4. eapply Permutation_in; [symmetry|]; eauto.
  - intros E h Hh. apply R6; auto. eapply Permutation_in; [symmetry|]; eauto.
Qed.

Lemma RInv_claims_incl c b H K K' : incl K' K -> RInv c b H K -> RInv c b H K'.
Proof. intros P [R1 R2 R3 R4 R5 R6]. constructor; auto. Qed.

(* what a hold must satisfy to be added to / what it satisfies when taken out of H *)
Definition hold_fits (c : config) (b : bm) (H : list hold) (h : hold) : Prop :=
  match h_kind h with
  | HOwn => tag b (h_loc h) = Some (DB KBlock) /\ ~ In (h_loc h) (own_locs H)
  | HCache => handle_ok_b b h /\ cache_on c = true
  end.

Lemma hold_fits_alloc c b H h x o : hold_fits c b H h -> hold_fits c (fst (bm_alloc b x o)) H h.
Proof.
  destruct (bm_alloc_spec b x o) as (_ & _ & _ & _ & _ & Eca & Hold).
  unfold hold_fits, handle_ok_b. destruct (h_kind h); [rewrite Eca; auto|].
  intros [Ht Hn]. split; auto. destruct (Hold _ (tag_lt _ _ _ Ht)) as [-> _]. exact Ht.
Qed.

Lemma RInv_add c b H K h : RInv c b H K -> hold_fits c b H h -> RInv c b (h :: H) K.
Proof.
  intros [R1 R2 R3 R4 R5 R6] F. unfold hold_fits in F. constructor; auto.
  - intros h' [<-|Hh] Ek; [rewrite Ek in F; apply F|auto].
  - unfold own_locs. simpl. fold (own_locs H). destruct (h_kind h); simpl; auto. constructor; auto. apply F.
  - intros h' [<-|Hh]; auto. destruct (h_kind h) eqn:Ek; [apply F|]. unfold handle_ok_b. rewrite Ek. exact I.
  - intros E h' [<-|Hh]; auto. destruct (h_kind h); auto. destruct F as [_ F]. congruence.
Qed.

Lemma RInv_tail c b H K h : RInv c b (h :: H) K -> RInv c b H K /\ hold_fits c b H h.
Proof.
  intros [R1 R2 R3 R4 R5 R6]. split.
  - constructor; auto.
    + intros h' Hh. apply R2. right. auto.
    + unfold own_locs in R3. simpl in R3. apply ListLemmas.NoDup_app_iff in R3. apply R3.
    + intros h' Hh. apply R4. right. auto.
    + intros E h' Hh. apply R6; auto. right. auto.
  - unfold hold_fits. destruct (h_kind h) eqn:Ek.
    + split.
      * specialize (R4 h (or_introl eq_refl)). auto.
      * destruct (cache_on c) eqn:Ec; auto. specialize (R6 eq_refl h (or_introl eq_refl)). congruence.
    + split; [apply R2; auto; left; auto|].
      unfold own_locs in R3. simpl in R3. rewrite Ek in R3. simpl in R3. inversion R3; auto.
Qed.

(* the death of a cache node (if it is evicted and nobody of H holds it) *)
Lemma RInv_gc c b H K held l : RInv c b H K ->
  (forall h', In h' H -> is_cache_hold l h' = true -> held = true) ->
  RInv c (gc_node c b held l) H K.
Proof.
  intros R Hheld. pose proof R as [R1 R2 R3 R4 R5 R6].
  pose proof (gc_node_spec c b held l R1) as (I' & T & _ & _ & Nk & Nsub & Nc & _ & _).
  destruct (node_of (bca b) l) as [n|] eqn:En.
  2:{ unfold gc_node in *. rewrite En in *. exact R. }
  destruct (node_of_in _ _ _ En) as [Hin El].
  assert (Ht : tag b l = Some Cache) by (rewrite <- El; apply (bi_cache _ R1); auto).
  constructor; auto.
  - intros h' Hh Ek. eapply tags_kept_at; eauto. cbv beta. intros E. specialize (R2 h' Hh Ek). rewrite E in R2. congruence.
  - intros h' Hh. specialize (R4 h' Hh). unfold handle_ok_b in *. destruct (h_kind h') eqn:Ek'; auto.
    destruct R4 as (m & Hm & E1 & E2 & E3).
    destruct (Nat.eq_dec (n_loc m) l) as [E|E].
    + assert (Hc : is_cache_hold l h' = true).
      { unfold is_cache_hold. rewrite Ek'. apply Nat.eqb_eq. congruence. }
      rewrite (Nc (Hheld h' Hh Hc)). exists m. auto.
    + exists m. split; auto.
  - intros x o Hk. destruct (R5 x o Hk) as [Hx Hc]. split; auto. eapply tags_kept_at; eauto. cbv beta. intros E. subst x.
    rewrite Ht in Hx. inversion Hx; subst; discriminate.
Qed.

(* a holder lets go of a hold that is not in H any more *)
Lemma RInv_release c b H K h held : RInv c b H K -> hold_fits c b H h ->
  (forall h', In h' H -> is_cache_hold (h_loc h) h' = true -> held (h_loc h) = true) ->
  RInv c (release_hold c b held h) H K.
Proof.
  intros R F Hheld. unfold release_hold. unfold hold_fits in F. destruct (h_kind h) eqn:Ek.
  - apply RInv_gc; auto.
  - destruct F as [Ft Fn]. pose proof R as [R1 R2 R3 R4 R5 R6].
    assert (Lt : h_loc h < length (bh b)) by (eapply tag_lt; eauto).
    assert (Hnp : ~ In (h_loc h) (pool_ids (bpl b))) by (intros Hp; pose proof (bi_pool _ R1 _ Hp); congruence).
    assert (Hnc : ~ In (h_loc h) (map n_loc (bca b))).
    { intros Hin. apply in_map_iff in Hin. destruct Hin as (m & Em & Hm). pose proof (bi_cache _ R1 m Hm) as Hc. rewrite Em in Hc. congruence. }
    pose proof (bpool_put_spec c b (h_loc h) R1 Lt Hnp Hnc) as (I2 & C2 & L2 & K2 & _ & _ & _).
    constructor; auto.
    + intros h' Hh Ek'. eapply tags_kept_at; eauto. cbv beta. intros E. apply Fn. apply own_locs_in. exists h'. auto.
    + intros h' Hh. specialize (R4 h' Hh). unfold handle_ok_b in *. destruct (h_kind h'); auto. rewrite C2. auto.
    + intros x o Hk. destruct (R5 x o Hk) as [Hx Hc]. split; auto. eapply tags_kept_at; eauto. cbv beta. intros E. subst x.
      rewrite Ft in Hx. inversion Hx; subst; discriminate.
Qed.

(* a new allocation with a claim *)
Lemma RInv_alloc c b H K x o : RInv c b H K -> claim_ok o = true ->
  RInv c (fst (bm_alloc b x o)) H ((length (bh b), o) :: K).
Proof.
  intros [R1 R2 R3 R4 R5 R6] Ho.
  destruct (bm_alloc_spec b x o) as (El & Elen & Et & Ec & Ep & Eca & Hold).
  constructor; [apply BInv_alloc; auto| |exact R3| | |exact R6].
  - intros h Hh Ek. destruct (Hold (h_loc h) (tag_lt _ _ _ (R2 h Hh Ek))) as [-> _]. auto.
  - intros h Hh. specialize (R4 h Hh). unfold handle_ok_b in *. destruct (h_kind h); auto.
  - intros l o' [E|Hk].
    + inversion E; subst. split; auto.
    + destruct (R5 l o' Hk) as [Ht Hc]. split; auto. destruct (Hold l (tag_lt _ _ _ Ht)) as [-> _]. auto.
Qed.

(* a write that changes the contents of a cell and nothing else *)
Lemma RInv_hset c b H K l x : RInv c b H K -> RInv c (bm_hp b (hset (bh b) l x)) H K.
Proof.
  intros [R1 R2 R3 R4 R5 R6]. constructor; [apply BInv_hset; auto| |exact R3|exact R4| |exact R6].
  - intros h Hh Ek. rewrite tag_bm_hp. rewrite hown_hset. apply R2; auto.
  - intros l' o Hk. rewrite tag_bm_hp. rewrite hown_hset. apply R5; auto.
Qed.

(* a private buffer nobody of H holds becomes the client's (find's slice of an unpooled, uncached block) *)
Lemma RInv_handover c b H K l : RInv c b H K -> tag b l = Some (DB KBlock) -> ~ In l (own_locs H) ->
  RInv c (bm_hp b (hchown (bh b) l Client)) H ((l, Client) :: K).
Proof.
  intros [R1 R2 R3 R4 R5 R6] Ht Hn. pose proof R1 as [B1 B2 B3 B4].
  assert (Lt : l < length (bh b)) by (eapply tag_lt; eauto).
  constructor; [ | |exact R3|exact R4| |exact R6].
  - constructor; cbn [bh bpl bca bm_hp]; auto.
    + intros x Hx. rewrite tag_bm_hp. rewrite hown_hchown_other; [apply B1; auto|]. intros <-. specialize (B1 _ Hx). congruence.
    + intros n Hn'. rewrite tag_bm_hp. rewrite hown_hchown_other; [apply B2; auto|]. intros E. specialize (B2 _ Hn'). rewrite <- E in B2. congruence.
  - intros h Hh Ek. rewrite tag_bm_hp. rewrite hown_hchown_other; [apply R2; auto|].
    intros E. apply Hn. apply own_locs_in. exists h. auto.
  - intros l' o [E|Hk].
    + inversion E; subst. split; auto. rewrite tag_bm_hp. apply hown_hchown_same. auto.
    + destruct (R5 l' o Hk) as [Hx Hc]. split; auto. rewrite tag_bm_hp. rewrite hown_hchown_other; auto.
      intros <-. rewrite Ht in Hx. inversion Hx; subst. discriminate.
Qed.

(* the pool forgets slices *)
Lemma RInv_pool_shrinks c b H K p' r : RInv c b H K -> pool_shrinks (bpl b) p' r -> RInv c (bm_pool b p') H K.
Proof.
  intros [R1 R2 R3 R4 R5 R6] S. pose proof R1 as [B1 B2 B3 B4].
  destruct (shrinks_nodup _ _ _ S B3) as (N' & _ & _ & Hsub & _).
  constructor; [|exact R2|exact R3|exact R4|exact R5|exact R6].
  constructor; cbn [bh bpl bca bm_pool]; auto. intros x Hx. apply (B1 x). auto.
Qed.

Lemma split_nth {A} (l : list A) : forall i x, nth_error l i = Some x ->
  exists P Q, l = P ++ x :: Q /\ forall y, replace_nth i l y = P ++ y :: Q.
Proof.
  induction l as [|a l IH]; intros [|i] x H; simpl in *; try discriminate.
  - inversion H; subst. exists [], l. split; auto.
  - destruct (IH i x H) as (P & Q & E1 & E2). exists (a :: P), Q. split; [simpl; f_equal; auto|].
    intros y. simpl. f_equal. auto.
Qed.

(* a cache node changes its LRU flag *)
Lemma RInv_set_lru c b H K k n f : RInv c b H K -> nth_error (bca b) k = Some n ->
  RInv c (bm_cache b (replace_nth k (bca b) (set_lru n f))) H K.
Proof.
  intros [R1 R2 R3 R4 R5 R6] Hk. pose proof R1 as [B1 B2 B3 B4].
  destruct (split_nth _ _ _ Hk) as (P & Q & EP & ER). rewrite ER.
  assert (E1 : map n_loc (P ++ set_lru n f :: Q) = map n_loc (bca b)) by (rewrite EP, !map_app; reflexivity).
  assert (E2 : forall m, In m (P ++ set_lru n f :: Q) -> m = set_lru n f \/ In m (bca b)).
  { intros m Hm. rewrite EP. apply in_app_or in Hm as [Hm|[<-|Hm]]; auto using in_or_app, in_cons. }
  assert (E3 : forall m, In m (bca b) -> exists m', In m' (P ++ set_lru n f :: Q) /\ same_node m m').
  { intros m Hm. rewrite EP in Hm. apply in_app_or in Hm as [Hm|[<-|Hm]].
    - exists m. split; [apply in_or_app; auto|apply same_node_refl].
    - exists (set_lru n f). split; [apply in_or_app; right; left; auto|repeat split].
    - exists m. split; [apply in_or_app; right; right; auto|apply same_node_refl]. }
  constructor; [|exact R2|exact R3| |exact R5|exact R6].
  - constructor; cbn [bh bpl bca bm_cache]; auto.
    + intros m Hm. destruct (E2 m Hm) as [->|Hm']; [|apply B2; auto]. cbn [n_loc set_lru]. apply B2. eapply nth_error_In; eauto.
    + rewrite E1. auto.
  - intros h Hh. specialize (R4 h Hh). unfold handle_ok_b in *. destruct (h_kind h); auto.
    destruct R4 as (m & Hm & A1 & A2 & A3). destruct (E3 m Hm) as (m' & Hm' & (S1 & S2 & S3)).
    exists m'. cbn [bca bm_cache]. repeat split; auto; congruence.
Qed.

Definition iter_claims (it : xiter) : list (loc * owner) := [(xi_kbuf it, DB KIter); (xi_vbuf it, DB KIter)].

Definition claims (s : xstate) : list (loc * owner) :=
  map (fun r => (rloc r, Client)) (xcvis s)
  ++ [(mkv (xmem s), DB KMem)]
  ++ match xtxn s with Some t => [(mkv (tmem t), DB KMem)] | None => [] end
  ++ flat_map iter_claims (xiters s).

Definition iter_bufs (s : xstate) : list loc := flat_map iter_buf_locs (xiters s).

Lemma cvis_claim s r : In r (xcvis s) -> In (rloc r, Client) (claims s).
Proof. intros H. unfold claims. apply in_or_app. left. apply in_map_iff. eauto. Qed.

Lemma mem_claim s : In (mkv (xmem s), DB KMem) (claims s).
Proof. unfold claims. apply in_or_app. right. left. reflexivity. Qed.

Lemma txn_claim s t : xtxn s = Some t -> In (mkv (tmem t), DB KMem) (claims s).
Proof. intros E. unfold claims. rewrite E. apply in_or_app. right. right. left. reflexivity. Qed.

Lemma iter_buf_claim s l : In l (iter_bufs s) -> In (l, DB KIter) (claims s).
Proof.
  intros Hin. apply in_flat_map in Hin. destruct Hin as (it & Hit & Hl).
  unfold claims. apply in_or_app. right. apply in_or_app. right. apply in_or_app. right.
  apply in_flat_map. exists it. split; auto. destruct Hl as [<-|[<-|[]]]; simpl; auto.
Qed.

(* the read paths copy as the code does; the iterator paths are left free (for the refutations) *)
Definition get_modes_fixed (md : xmodes) : Prop :=
  forall k c, md (XPGetMem k) c = Copy /\ md (XPGetTable k) c = xfixed (XPGetTable k) c.

(* both directions copy key and value (the code) *)
Definition iter_modes_copy (md : xmodes) : Prop :=
  forall k d c, md (XPIterKey k d) c = Copy /\ md (XPIterValue k d) c = Copy.

(* Key()/Value() are slices of the iterator's own two buffers *)
Definition ex_ok (it : xiter) : Prop := rloc (xi_exk it) = xi_kbuf it /\ rloc (xi_exv it) = xi_vbuf it.

Record XInv (c : config) (s : xstate) : Prop := {
  xv_r : RInv c (xbm s) (all_holds s) (claims s);
  xv_nd : NoDup (iter_bufs s)
}.

Lemma hold_fits_perm c b H H' h : Permutation H H' -> hold_fits c b H h -> hold_fits c b H' h.
Proof.
  intros P. unfold hold_fits. destruct (h_kind h); auto. intros [Ht Hn]. split; auto. intros Hin. apply Hn.
  eapply Permutation_in; [symmetry; apply own_locs_perm; eauto|auto].
Qed.

Lemma holds_iter s i it : get_iter s i = Some it ->
  exists R, Permutation (all_holds s) (xi_held it ++ R) /\
            forall it', Permutation (all_holds (put_iter s i it')) (xi_held it' ++ R).
Proof.
  unfold get_iter. intros H. destruct (split_nth _ _ _ H) as (P & Q & E1 & E2).
  exists (flat_map xi_held P ++ flat_map xi_held Q ++ flat_map (fun cl => ohold_list (c_hold cl)) (xcalls s)). split.
  - unfold all_holds. rewrite E1. rewrite flat_map_app. simpl. rewrite <- !app_assoc. apply Permutation_app_swap_app.
  - intros it'. unfold all_holds, put_iter. cbn [xiters xcalls xset_iters]. rewrite E2. rewrite flat_map_app. simpl.
    rewrite <- !app_assoc. apply Permutation_app_swap_app.
Qed.

Lemma holds_call s j cl : nth_error (xcalls s) j = Some cl ->
  exists R, Permutation (all_holds s) (ohold_list (c_hold cl) ++ R) /\
            forall cl', Permutation (all_holds (xset_calls s (replace_nth j (xcalls s) cl'))) (ohold_list (c_hold cl') ++ R).
Proof.
  intros H. destruct (split_nth _ _ _ H) as (P & Q & E1 & E2).
  set (f := fun cl => ohold_list (c_hold cl)).
  exists (flat_map xi_held (xiters s) ++ flat_map f P ++ flat_map f Q). split.
  - unfold all_holds. fold f. rewrite E1. rewrite flat_map_app. simpl. fold (f cl).
    rewrite (app_assoc (flat_map xi_held (xiters s))). rewrite (app_assoc (flat_map xi_held (xiters s)) (flat_map f P) (flat_map f Q)).
    apply Permutation_app_swap_app.
  - intros cl'. unfold all_holds. cbn [xiters xcalls xset_calls]. fold f. rewrite E2. rewrite flat_map_app. simpl. fold (f cl').
    rewrite (app_assoc (flat_map xi_held (xiters s))). rewrite (app_assoc (flat_map xi_held (xiters s)) (flat_map f P) (flat_map f Q)).
    apply Permutation_app_swap_app.
Qed.

Lemma acquire_cache_kind c b tid bi ofb pk h : snd (acquire c b tid bi ofb pk) = Some h ->
  (h_kind h = HCache -> cache_on c = true) /\ (cache_on c = false -> h_kind h = HOwn).
Proof.
  unfold acquire. destruct ofb; cbn [snd]; [|discriminate]. destruct (cache_on c).
  - intros _. split; auto. discriminate.
  - destruct (read_raw c b f pk). cbn [snd]. intros E. inversion E; subst. cbn [h_kind]. split; auto. discriminate.
Qed.

Lemma held_anywhere_spec s l h : In h (all_holds s) -> is_cache_hold l h = true -> held_anywhere s l = true.
Proof. intros Hin Hc. unfold held_anywhere. apply existsb_exists. eauto. Qed.

(* a step of the buffer manager that leaves the records alone *)
Lemma XInv_set_bm c s b' : XInv c s -> RInv c b' (all_holds s) (claims s) -> XInv c (xset_bm s b').
Proof. intros [R N] R'. constructor; auto. Qed.

(* the contents of the iterators' buffers, except those in X, are the same in s' *)
Definition foot (s s' : xstate) (X : loc -> Prop) : Prop :=
  forall l, In l (iter_bufs s) -> ~ X l -> cont (xbm s') l = cont (xbm s) l.

Lemma iter_buf_tag c s l : XInv c s -> In l (iter_bufs s) -> tag (xbm s) l = Some (DB KIter).
Proof. intros [R N] Hin. apply (r_claims _ _ _ _ R). apply iter_buf_claim. exact Hin. Qed.

Lemma foot_refl s X : foot s s X.
Proof. intros l _ _. reflexivity. Qed.

Lemma foot_trans s1 s2 s3 X : foot s1 s2 X -> foot s2 s3 X -> (forall l, In l (iter_bufs s1) -> In l (iter_bufs s2)) -> foot s1 s3 X.
Proof. intros F1 F2 Hsub l Hl Hn. rewrite F2; auto. Qed.

Lemma foot_weaken s s' (X Y : loc -> Prop) : foot s s' X -> (forall l, X l -> Y l) -> foot s s' Y.
Proof. intros F H l Hl Hn. apply F; auto. Qed.

(* a step of the buffer manager whose writes went to pooled or new locations *)
Lemma foot_pool c s b' X : XInv c s -> conts_kept (xbm s) b' (was_pool_or_new (xbm s)) -> foot s (xset_bm s b') X.
Proof.
  intros Xi Q l Hl _. cbn [xbm xset_bm]. pose proof (iter_buf_tag c s l Xi Hl) as Ht. apply Q; [eapply tag_lt; eauto|].
  eapply not_was_pool; eauto. discriminate.
Qed.

(* readBlockCached by somebody who will store the hold *)
Lemma XInv_acquire c s tid bi pk : XInv c s ->
  let s' := fst (xacquire c s tid bi pk) in
  XInv c s' /\ foot s s' (fun _ => False) /\
  match snd (xacquire c s tid bi pk) with
  | Some h => hold_fits c (xbm s') (all_holds s) h /\ h_tid h = tid /\ h_bi h = bi
  | None => True
  end.
Proof.
  intros X. pose proof X as [R N]. unfold xacquire. cbn [fst snd].
  pose proof (acquire_spec c (xbm s) tid bi (xfile_block s tid bi) pk (r_bm _ _ _ _ R)) as (I' & T & Q & Nf & _ & _ & Hh).
  assert (R' : RInv c (fst (acquire c (xbm s) tid bi (xfile_block s tid bi) pk)) (all_holds s) (claims s)).
  { eapply RInv_kept; eauto. }
  split; [apply XInv_set_bm; auto|]. split; [eapply foot_pool; eauto|].
  destruct (snd (acquire c (xbm s) tid bi (xfile_block s tid bi) pk)) as [h|] eqn:Eh; auto.
  destruct Hh as (Et & Eb & Hk & _). split; auto. cbn [xbm xset_bm].
  destruct (acquire_cache_kind _ _ _ _ _ _ _ Eh) as [Hc _].
  unfold hold_fits. destruct (h_kind h) eqn:Ek.
  - split; auto. unfold handle_ok_b. rewrite Ek. destruct Hk as (n & Hn & E1 & E2 & E3). exists n. repeat split; auto; congruence.
  - destruct Hk as (Ht & _ & Hw & _). split; auto. intros Hin. apply own_locs_in in Hin. destruct Hin as (h' & Hh' & Ek' & El).
    pose proof (r_own _ _ _ _ R h' Hh' Ek') as Ht'. rewrite El in Ht'.
    eapply not_was_pool; eauto. discriminate.
Qed.

Lemma XInv_release c s h : XInv c s -> hold_fits c (xbm s) (all_holds s) h -> XInv c (xrelease c s h).
Proof.
  intros [R N] F. unfold xrelease. apply XInv_set_bm; [constructor; auto|].
  apply RInv_release; auto. intros h' Hh Hc. eapply held_anywhere_spec; eauto.
Qed.

Lemma release_cont c s h y : cont (xbm (xrelease c s h)) y = cont (xbm s) y.
Proof.
  unfold xrelease, release_hold. cbn [xbm xset_bm]. destruct (h_kind h); [apply gc_node_cont|apply bpool_put_cont].
Qed.

Lemma foot_release c s h X : XInv c s -> hold_fits c (xbm s) (all_holds s) h -> foot s (xrelease c s h) X.
Proof. intros _ _ l _ _. apply release_cont. Qed.

(* everything but the buffer manager and the iterator records *)
Definition rest_kept (s s' : xstate) : Prop :=
  xcalls s' = xcalls s /\ xcvis s' = xcvis s /\ xmem s' = xmem s /\ xtxn s' = xtxn s /\
  xfiles s' = xfiles s /\ xlive s' = xlive s /\ xseq s' = xseq s /\ xsnaps s' = xsnaps s.

Lemma rest_kept_refl s : rest_kept s s.
Proof. repeat split. Qed.

Lemma rest_kept_trans s1 s2 s3 : rest_kept s1 s2 -> rest_kept s2 s3 -> rest_kept s1 s3.
Proof.
  intros (A1 & A2 & A3 & A4 & A5 & A6 & A7 & A8) (B1 & B2 & B3 & B4 & B5 & B6 & B7 & B8). repeat split; congruence.
Qed.

Lemma replace_nth_length {A} (l : list A) : forall i x, length (replace_nth i l x) = length l.
Proof. induction l; intros [|i] x; simpl; auto. Qed.

Lemma xacquire_frame c s tid bi pk :
  rest_kept s (fst (xacquire c s tid bi pk)) /\ xiters (fst (xacquire c s tid bi pk)) = xiters s.
Proof. unfold xacquire. cbn. repeat split. Qed.

Lemma xrelease_frame c s h : rest_kept s (xrelease c s h) /\ xiters (xrelease c s h) = xiters s.
Proof. unfold xrelease. cbn. repeat split. Qed.

Lemma iter_bufs_eq s s' : xiters s' = xiters s -> iter_bufs s' = iter_bufs s.
Proof. unfold iter_bufs. intros ->. reflexivity. Qed.

Lemma all_holds_eq s s' : rest_kept s s' -> xiters s' = xiters s -> all_holds s' = all_holds s.
Proof. intros (E & _) Ei. unfold all_holds. rewrite E, Ei. reflexivity. Qed.

(* a sub-step that leaves every record alone and writes to the iterators' buffers in X at most *)
Definition records_kept (X : loc -> Prop) (c : config) (s s' : xstate) : Prop :=
  XInv c s' /\ rest_kept s s' /\ xiters s' = xiters s /\ foot s s' X.

Lemma records_kept_refl X c s : XInv c s -> records_kept X c s s.
Proof. intros Xi. split; auto. split; [apply rest_kept_refl|]. split; [reflexivity|apply foot_refl]. Qed.

Lemma records_kept_trans X c s1 s2 s3 : records_kept X c s1 s2 -> records_kept X c s2 s3 -> records_kept X c s1 s3.
Proof.
  intros (_ & K2 & E2 & F2) (X3 & K3 & E3 & F3). split; auto. split; [eapply rest_kept_trans; eauto|]. split; [congruence|].
  eapply foot_trans; eauto. intros l Hl. rewrite (iter_bufs_eq _ _ E2). auto.
Qed.

Lemma XInv_touch c : forall ex s, XInv c s -> records_kept (fun _ => False) c s (touch_blocks c s ex).
Proof.
  induction ex as [|[[tid [bi|]] pk] ex IH]; intros s X; cbn [touch_blocks]; [apply records_kept_refl; auto| |apply IH; auto].
  pose proof (XInv_acquire c s tid bi pk X) as A. destruct (xacquire_frame c s tid bi pk) as [K1 E1].
  destruct (xacquire c s tid bi pk) as [s1 oh]. cbn [fst snd] in *. destruct A as (X1 & Ft1 & Hh).
  eapply records_kept_trans; [split; [exact X1|split; [exact K1|split; [exact E1|exact Ft1]]]|].
  (* the hold goes back at once *)
  assert (B : records_kept (fun _ => False) c s1 (match oh with Some h => xrelease c s1 h | None => s1 end)).
  { destruct oh as [h|]; [|apply records_kept_refl; auto].
    destruct Hh as [Fit _]. rewrite <- (all_holds_eq s s1 K1 E1) in Fit. destruct (xrelease_frame c s1 h) as [K2 E2].
    split; [apply XInv_release; auto|]. split; [exact K2|]. split; [exact E2|apply foot_release; auto]. }
  eapply records_kept_trans; [exact B|]. apply IH. apply B.
Qed.

Lemma flat_map_replace_same {A B} (f : A -> list B) (l : list A) : forall i x y,
  nth_error l i = Some x -> f y = f x -> flat_map f (replace_nth i l y) = flat_map f l.
Proof.
  induction l as [|a l IH]; intros [|i] x y H E; simpl in *; try discriminate.
  - inversion H; subst. rewrite E. reflexivity.
  - f_equal. eauto.
Qed.

Lemma put_iter_claims s i it it' : get_iter s i = Some it -> xi_kbuf it' = xi_kbuf it -> xi_vbuf it' = xi_vbuf it ->
  claims (put_iter s i it') = claims s /\ iter_bufs (put_iter s i it') = iter_bufs s.
Proof.
  intros H Ek Ev. unfold claims, iter_bufs, put_iter. cbn [xcvis xmem xtxn xiters xset_iters]. split.
  - rewrite (flat_map_replace_same iter_claims _ _ _ _ H); auto. unfold iter_claims. rewrite Ek, Ev. reflexivity.
  - apply (flat_map_replace_same iter_buf_locs _ _ _ _ H). unfold iter_buf_locs. rewrite Ek, Ev. reflexivity.
Qed.

Lemma drop_tid_perm hs tid h : hold_of_tid hs tid = Some h -> Permutation hs (h :: drop_tid hs tid) /\ h_tid h = tid.
Proof.
  unfold hold_of_tid. induction hs as [|a hs IH]; simpl; [discriminate|].
  destruct (Nat.eqb (h_tid a) tid) eqn:E.
  - intros H. inversion H; subst. apply Nat.eqb_eq in E. split; auto.
  - intros H. destruct (IH H) as [P Et]. split; auto. rewrite P at 1. apply perm_swap.
Qed.

Lemma get_put_iter s i it it' : get_iter s i = Some it -> get_iter (put_iter s i it') i = Some it'.
Proof.
  unfold get_iter, put_iter. cbn [xiters xset_iters]. generalize (xiters s). intros l. revert i.
  induction l as [|a l IH]; intros [|i] H; simpl in *; try discriminate; auto.
Qed.

Lemma get_put_iter_other s i j it' : i <> j -> get_iter (put_iter s i it') j = get_iter s j.
Proof.
  unfold get_iter, put_iter. cbn [xiters xset_iters]. generalize (xiters s). intros l. revert i j.
  induction l as [|a l IH]; intros [|i] [|j] H; simpl in *; auto; try congruence.
Qed.

(* the records of the iterators other than i are the same, and i keeps its buffers *)
Definition iters_kept (i : nat) (s s' : xstate) : Prop :=
  length (xiters s') = length (xiters s) /\
  (forall j, j <> i -> get_iter s' j = get_iter s j) /\
  (forall it, get_iter s i = Some it -> exists it', get_iter s' i = Some it' /\ xi_kbuf it' = xi_kbuf it /\ xi_vbuf it' = xi_vbuf it
                                                  /\ xi_srcs it' = xi_srcs it /\ xi_kind it' = xi_kind it /\ xi_live it' = xi_live it
                                                  /\ xi_pos it' = xi_pos it /\ xi_exk it' = xi_exk it /\ xi_exv it' = xi_exv it).

Definition same_but_held (it it' : xiter) : Prop :=
  xi_kbuf it' = xi_kbuf it /\ xi_vbuf it' = xi_vbuf it /\ xi_srcs it' = xi_srcs it /\ xi_kind it' = xi_kind it /\
  xi_live it' = xi_live it /\ xi_pos it' = xi_pos it /\ xi_exk it' = xi_exk it /\ xi_exv it' = xi_exv it.

Definition same_bufs (it it' : xiter) : Prop :=
  xi_kbuf it' = xi_kbuf it /\ xi_vbuf it' = xi_vbuf it /\ xi_srcs it' = xi_srcs it /\ xi_kind it' = xi_kind it.

(* what a sub-step working for an iterator does to its record: buffers, sources and kind stay; a strict one changes
   the holds only *)
Definition it_step (strict : Prop) (it it' : xiter) : Prop := same_bufs it it' /\ (strict -> same_but_held it it').

Lemma it_step_refl strict it : it_step strict it it.
Proof. repeat split. Qed.

Lemma it_step_trans strict a b c : it_step strict a b -> it_step strict b c -> it_step strict a c.
Proof.
  intros [(A1 & A2 & A3 & A4) A] [(B1 & B2 & B3 & B4) B]. split; [repeat split; congruence|]. intros S.
  destruct (A S) as (A5 & A6 & A7 & A8 & A9 & A10 & A11 & A12). destruct (B S) as (B5 & B6 & B7 & B8 & B9 & B10 & B11 & B12).
  repeat split; congruence.
Qed.

Lemma held_step strict it it' : same_but_held it it' -> it_step strict it it'.
Proof. intros S. split; auto. destruct S as (B1 & B2 & B3 & B4 & _). repeat split; auto. Qed.

Lemma bufs_step it it' : same_bufs it it' -> it_step False it it'.
Proof. intros S. split; [auto|contradiction]. Qed.

(* the records of the iterators other than i are the same, and i's changes by it_step *)
Definition iters_step (strict : Prop) (i : nat) (s s' : xstate) : Prop :=
  length (xiters s') = length (xiters s) /\
  (forall j, j <> i -> get_iter s' j = get_iter s j) /\
  (forall it, get_iter s i = Some it -> exists it', get_iter s' i = Some it' /\ it_step strict it it') /\
  (get_iter s i = None -> get_iter s' i = None).

Lemma same_iters_step strict i s s' : xiters s' = xiters s -> iters_step strict i s s'.
Proof.
  intros E. unfold iters_step, get_iter. rewrite E. repeat split; auto. intros it H. exists it. split; auto. apply it_step_refl.
Qed.

Lemma iters_step_trans strict i s1 s2 s3 : iters_step strict i s1 s2 -> iters_step strict i s2 s3 -> iters_step strict i s1 s3.
Proof.
  intros (A1 & A2 & A3 & A4) (B1 & B2 & B3 & B4). split; [congruence|]. split; [intros j Hj; rewrite B2, A2; auto|]. split; [|auto].
  intros it H. destruct (A3 it H) as (it' & H' & S1). destruct (B3 it' H') as (it'' & H'' & S2).
  exists it''. split; auto. eapply it_step_trans; eauto.
Qed.

Lemma iters_step_weaken (strict strict' : Prop) i s s' : (strict' -> strict) -> iters_step strict i s s' -> iters_step strict' i s s'.
Proof.
  intros W (A1 & A2 & A3 & A4). split; auto. split; auto. split; auto.
  intros it H. destruct (A3 it H) as (it' & H' & [B S]). exists it'. split; auto. split; auto.
Qed.

Lemma map_nth_ext {A B} (f : A -> B) : forall l l', length l = length l' ->
  (forall j, option_map f (nth_error l j) = option_map f (nth_error l' j)) -> map f l = map f l'.
Proof.
  induction l as [|a l IH]; intros [|a' l'] L H; simpl in *; try discriminate; auto.
  pose proof (H 0) as H0. simpl in H0. inversion H0. f_equal. apply IH; [lia|]. intros j. apply (H (S j)).
Qed.

Lemma iters_step_bufs strict i s s' : iters_step strict i s s' -> iter_bufs s' = iter_bufs s.
Proof.
  intros (L & O & Si & Sn). unfold iter_bufs. rewrite !flat_map_concat_map. f_equal.
  apply map_nth_ext; auto. intros j. destruct (Nat.eq_dec j i) as [->|Hj].
  - unfold get_iter in *. destruct (nth_error (xiters s) i) as [it|] eqn:E.
    + destruct (Si it eq_refl) as (it' & E' & ((B1 & B2 & _) & _)). rewrite E'. simpl. unfold iter_buf_locs. rewrite B1, B2. reflexivity.
    + rewrite (Sn eq_refl). reflexivity.
  - unfold get_iter in O. rewrite (O j Hj). reflexivity.
Qed.

Lemma put_iter_step strict s i it it' : get_iter s i = Some it -> it_step strict it it' -> iters_step strict i s (put_iter s i it').
Proof.
  intros Ei S. split; [unfold put_iter; cbn; apply replace_nth_length|]. split; [intros j Hj; apply get_put_iter_other; auto|]. split.
  - intros it0 H. rewrite Ei in H. inversion H; subst. exists it'. split; auto. eapply get_put_iter; eauto.
  - intros H. congruence.
Qed.

(* a sub-step working for iterator i: the invariant holds afterwards, only the buffer manager and i's record changed,
   and of the iterators' buffers only those in X were written to *)
Definition stepped (strict : Prop) (X : loc -> Prop) (c : config) (i : nat) (s s' : xstate) : Prop :=
  XInv c s' /\ rest_kept s s' /\ iters_step strict i s s' /\ foot s s' X.

Lemma stepped_inv strict X c i s s' : stepped strict X c i s s' -> XInv c s'.
Proof. intros S. apply S. Qed.

Lemma records_stepped strict (X X' : loc -> Prop) c i s s' :
  records_kept X c s s' -> (forall l, X l -> X' l) -> stepped strict X' c i s s'.
Proof.
  intros (A & B & C & D) W. split; auto. split; auto. split; [apply same_iters_step; auto|eapply foot_weaken; eauto].
Qed.

Lemma stepped_refl strict X c i s : XInv c s -> stepped strict X c i s s.
Proof. intros Xi. apply (records_stepped strict X X); [apply records_kept_refl; exact Xi|auto]. Qed.

Lemma stepped_trans strict X c i s1 s2 s3 :
  stepped strict X c i s1 s2 -> stepped strict X c i s2 s3 -> stepped strict X c i s1 s3.
Proof.
  intros (_ & K2 & L2 & F2) (X3 & K3 & L3 & F3). split; auto. split; [eapply rest_kept_trans; eauto|].
  split; [eapply iters_step_trans; eauto|].
  eapply foot_trans; eauto. intros l Hl. rewrite (iters_step_bufs _ _ _ _ L2). auto.
Qed.

Lemma stepped_weaken (strict strict' : Prop) (X X' : loc -> Prop) c i s s' :
  (strict' -> strict) -> (forall l, X l -> X' l) -> stepped strict X c i s s' -> stepped strict' X' c i s s'.
Proof.
  intros Ws Wx (A & B & C & D). split; auto. split; auto. split; [eapply iters_step_weaken; eauto|eapply foot_weaken; eauto].
Qed.

Lemma put_iter_stepped strict X c s i it it' : get_iter s i = Some it -> it_step strict it it' -> XInv c (put_iter s i it') ->
  stepped strict X c i s (put_iter s i it').
Proof.
  intros Ei S Xi. split; auto. split; [repeat split|]. split; [eapply put_iter_step; eauto|intros l _ _; reflexivity].
Qed.

(* the table child tid of iterator i lets its block go *)
Lemma XInv_child_drop c s i tid : XInv c s -> stepped True (fun _ => False) c i s (child_drop c s i tid).
Proof.
  intros X. unfold child_drop. destruct (get_iter s i) as [it|] eqn:Ei; [|apply stepped_refl; auto].
  destruct (hold_of_tid (xi_held it) tid) as [h|] eqn:Eh; [|apply stepped_refl; auto].
  set (it1 := it_set_held it (drop_tid (xi_held it) tid)). set (s1 := put_iter s i it1).
  destruct (holds_iter s i it Ei) as (R & P0 & P1). specialize (P1 it1). fold s1 in P1. cbn [xi_held it1 it_set_held] in P1.
  destruct (drop_tid_perm _ _ _ Eh) as [Pd _].
  destruct (put_iter_claims s i it it1 Ei eq_refl eq_refl) as [Ec Eb]. fold s1 in Ec, Eb.
  pose proof X as [Rv Nd].
  assert (R1 : RInv c (xbm s) (h :: drop_tid (xi_held it) tid ++ R) (claims s)).
  { eapply RInv_perm; [|exact Rv]. rewrite P0. rewrite Pd at 1. reflexivity. }
  destruct (RInv_tail _ _ _ _ _ R1) as [R2 F2].
  assert (X1 : XInv c s1).
  { constructor; [|rewrite Eb; auto]. rewrite Ec. change (xbm s1) with (xbm s). eapply RInv_perm; [symmetry; exact P1|exact R2]. }
  assert (F1 : hold_fits c (xbm s1) (all_holds s1) h).
  { change (xbm s1) with (xbm s). eapply hold_fits_perm; [symmetry; exact P1|exact F2]. }
  (* the record first, then the release *)
  apply (stepped_trans _ _ _ _ _ s1); [apply (put_iter_stepped _ _ _ _ _ it); [exact Ei|apply held_step; repeat split|exact X1]|].
  destruct (xrelease_frame c s1 h) as [K E].
  apply (records_stepped _ (fun _ => False)); [|auto].
  split; [apply XInv_release; auto|split; [exact K|split; [exact E|apply foot_release; auto]]].
Qed.

(* adding a hold to iterator i *)
Lemma XInv_add_hold c s i it h : XInv c s -> get_iter s i = Some it -> hold_fits c (xbm s) (all_holds s) h ->
  XInv c (put_iter s i (it_set_held it (h :: xi_held it))).
Proof.
  intros [R N] Ei F. destruct (holds_iter s i it Ei) as (Rr & P0 & P1).
  specialize (P1 (it_set_held it (h :: xi_held it))). cbn [xi_held it_set_held] in P1.
  destruct (put_iter_claims s i it (it_set_held it (h :: xi_held it)) Ei eq_refl eq_refl) as [Ec Eb].
  constructor; [|rewrite Eb; auto]. rewrite Ec.
  change (xbm (put_iter s i (it_set_held it (h :: xi_held it)))) with (xbm s).
  eapply RInv_perm; [symmetry; exact P1|]. simpl. apply RInv_add.
  - eapply RInv_perm; [exact P0|exact R].
  - eapply hold_fits_perm; [exact P0|exact F].
Qed.

(* acquire for iterator i, then store the hold *)
Lemma XInv_acquire_store c s i tid bi pk : XInv c s ->
  let r := xacquire c s tid bi pk in
  let s' := match get_iter (fst r) i, snd r with
            | Some it2, Some h2 => put_iter (fst r) i (it_set_held it2 (h2 :: xi_held it2))
            | _, _ => fst r
            end in
  stepped True (fun _ => False) c i s s'.
Proof.
  intros X. cbv zeta.
  pose proof (XInv_acquire c s tid bi pk X) as A. destruct (xacquire_frame c s tid bi pk) as [K E].
  destruct (xacquire c s tid bi pk) as [s2 oh]. cbn [fst snd] in *. destruct A as (X2 & Ft2 & Hh).
  assert (S2 : stepped True (fun _ => False) c i s s2).
  { eapply records_stepped; [split; [exact X2|split; [exact K|split; [exact E|exact Ft2]]]|auto]. }
  destruct (get_iter s2 i) as [it2|] eqn:Ei; [|exact S2]. destruct oh as [h2|]; [|exact S2].
  destruct Hh as [Fit _]. rewrite <- (all_holds_eq s s2 K E) in Fit.
  eapply stepped_trans; [exact S2|].
  apply (put_iter_stepped _ _ _ _ _ it2); [exact Ei|apply held_step; repeat split|apply XInv_add_hold; auto].
Qed.

Lemma XInv_child_goto c s i tid bi pk : XInv c s -> stepped True (fun _ => False) c i s (child_goto c s i tid bi pk).
Proof.
  intros X. unfold child_goto. destruct (get_iter s i) as [it|] eqn:Ei; [|apply stepped_refl; auto].
  destruct (hold_of_tid (xi_held it) tid) as [h|] eqn:Eh.
  - destruct (Nat.eqb (h_bi h) bi); [apply stepped_refl; auto|].
    pose proof (XInv_child_drop c s i tid X) as S1.
    pose proof (XInv_acquire_store c (child_drop c s i tid) i tid bi pk (stepped_inv _ _ _ _ _ _ S1)) as A. cbv zeta in A.
    destruct (xacquire c (child_drop c s i tid) tid bi pk) as [s2 oh]. cbn [fst snd] in A. eapply stepped_trans; eauto.
  - pose proof (XInv_acquire_store c s i tid bi pk X) as A. cbv zeta in A.
    destruct (xacquire c s tid bi pk) as [s2 oh]. cbn [fst snd] in A. exact A.
Qed.

Lemma XInv_children_move c i : forall ex s, XInv c s -> stepped True (fun _ => False) c i s (children_move c s i ex).
Proof.
  induction ex as [|[[tid [bi|]] pk] ex IH]; intros s X; cbn [children_move]; [apply stepped_refl; auto| |].
  - pose proof (XInv_child_goto c s i tid bi pk X) as S1.
    eapply stepped_trans; [exact S1|apply IH; eapply stepped_inv; eauto].
  - pose proof (XInv_child_drop c s i tid X) as S1.
    eapply stepped_trans; [exact S1|apply IH; eapply stepped_inv; eauto].
Qed.

Lemma XInv_hset c s l x : XInv c s -> XInv c (xset_hp s (hset (xhp s) l x)).
Proof. intros [R N]. unfold xset_hp. apply XInv_set_bm; [constructor; auto|]. apply RInv_hset. auto. Qed.

Lemma XInv_put_same_held c s i it it' : XInv c s -> get_iter s i = Some it ->
  xi_held it' = xi_held it -> xi_kbuf it' = xi_kbuf it -> xi_vbuf it' = xi_vbuf it -> XInv c (put_iter s i it').
Proof.
  intros [R N] Ei Eh Ek Ev. destruct (holds_iter s i it Ei) as (Rr & P0 & P1). specialize (P1 it'). rewrite Eh in P1.
  destruct (put_iter_claims s i it it' Ei Ek Ev) as [Ec Eb].
  constructor; [|rewrite Eb; auto]. rewrite Ec. change (xbm (put_iter s i it')) with (xbm s).
  eapply RInv_perm; [|exact R]. rewrite P1. exact P0.
Qed.

Definition bufs_of (s : xstate) (i : nat) (l : loc) : Prop := exists it, get_iter s i = Some it /\ In l (iter_buf_locs it).

Lemma foot_hset s l x : foot s (xset_hp s (hset (xhp s) l x)) (fun y => y = l).
Proof. intros y _ Hn. unfold cont, xset_hp. cbn [xbm xset_bm bh bm_hp]. apply hget_hset_other. auto. Qed.

Lemma bufs_of_step strict i s s' l : iters_step strict i s s' -> bufs_of s' i l -> bufs_of s i l.
Proof.
  intros (L & O & Si & Sn) (it' & E' & Hl). destruct (get_iter s i) as [it|] eqn:E.
  - destruct (Si it eq_refl) as (it2 & E2 & ((B1 & B2 & _) & _)). rewrite E2 in E'. inversion E'; subst it2.
    exists it. split; auto. unfold iter_buf_locs in *. rewrite <- B1, <- B2. auto.
  - rewrite (Sn eq_refl) in E'. discriminate.
Qed.

(* a movement of iterator i: of the iterators' buffers only its own two are written to, and what it exposes stays a
   slice of them if the modes copy *)
Definition moved (md : xmodes) (c : config) (i : nat) (s s' : xstate) : Prop :=
  stepped False (bufs_of s i) c i s s' /\
  (iter_modes_copy md -> forall it it', get_iter s i = Some it -> get_iter s' i = Some it' -> ex_ok it -> ex_ok it').

Lemma moved_inv md c i s s' : moved md c i s s' -> XInv c s'.
Proof. intros M. apply M. Qed.

Lemma moved_refl md c i s : XInv c s -> moved md c i s s.
Proof. intros X. split; [apply stepped_refl; auto|]. intros _ it it' H H' Ok. rewrite H in H'. inversion H'; subst; auto. Qed.

Lemma moved_trans md c i s1 s2 s3 : moved md c i s1 s2 -> moved md c i s2 s3 -> moved md c i s1 s3.
Proof.
  intros [S2 E2] [S3 E3]. pose proof S2 as (_ & _ & L2 & _). split.
  - eapply stepped_trans; [exact S2|]. eapply stepped_weaken; [| |exact S3]; auto. intros l. apply (bufs_of_step _ _ _ _ _ L2).
  - intros Md it it3 H1 H3 Ok. destruct L2 as (_ & _ & Si & _). destruct (Si it H1) as (it2 & H2 & _). eauto.
Qed.

Lemma framed_moved md c i s s' : stepped True (fun _ => False) c i s s' -> moved md c i s s'.
Proof.
  intros S. split; [eapply stepped_weaken; [| |exact S]; [auto|intros l []]|].
  intros _ it it' H H' [E1 E2]. destruct S as (_ & _ & (_ & _ & Si & _) & _).
  destruct (Si it H) as (it2 & H2 & [_ B]). rewrite H2 in H'. inversion H'; subst.
  destruct (B I) as (B1 & B2 & _ & _ & _ & _ & B7 & B8). unfold ex_ok. rewrite B1, B2, B7, B8. auto.
Qed.

(* Key() or Value(): a copy into the iterator's buffer, or the slice it was given *)
Lemma expose1 (m : mode) c s buf x r s1 e : XInv c s ->
  match m with Copy => (xset_hp s (hset (xhp s) buf x), mkref buf 0 (length x)) | Slice => (s, r) end = (s1, e) ->
  records_kept (fun y => y = buf) c s s1 /\ (m = Copy -> rloc e = buf).
Proof.
  intros X E. destruct m; inversion E; subst; (split; [|auto; discriminate]).
  - split; [apply XInv_hset; auto|]. split; [repeat split|]. split; [reflexivity|apply foot_hset].
  - apply records_kept_refl; auto.
Qed.

Lemma XInv_expose md c s i d kr vr : XInv c s -> moved md c i s (xexpose md c s i d kr vr).
Proof.
  intros X. unfold xexpose. destruct (get_iter s i) as [it|] eqn:Ei; [|apply moved_refl; auto]. cbv zeta.
  destruct (match md (XPIterKey (xi_kind it) d) c with Copy => _ | Slice => _ end) as [s1 ek] eqn:E1.
  destruct (expose1 _ _ _ _ _ _ _ _ X E1) as [K1 C1]. pose proof K1 as (X1 & _ & I1 & _).
  destruct (match md (XPIterValue (xi_kind it) d) c with Copy => _ | Slice => _ end) as [s2 ev] eqn:E2.
  destruct (expose1 _ _ _ _ _ _ _ _ X1 E2) as [K2 C2]. pose proof K2 as (X2 & _ & I2 & _).
  assert (Ei1 : get_iter s1 i = Some it) by (unfold get_iter in *; rewrite I1; auto).
  assert (Ei2 : get_iter s2 i = Some it) by (unfold get_iter in *; rewrite I2; auto).
  rewrite Ei2. split.
  - eapply stepped_trans; [apply (records_stepped _ _ _ _ _ _ _ K1)|].
    { intros l ->. exists it. split; auto. left. auto. }
    eapply stepped_trans; [apply (records_stepped _ _ _ _ _ _ _ K2)|].
    { intros l ->. exists it. split; auto. right. left. auto. }
    apply (put_iter_stepped _ _ _ _ _ it); [exact Ei2|apply bufs_step; repeat split|eapply XInv_put_same_held; eauto].
  - intros Md it0 it' H0 H' _. rewrite Ei in H0. inversion H0; subst it0. erewrite get_put_iter in H' by eauto. inversion H'; subst it'.
    destruct (Md (xi_kind it) d c) as [Mk Mv]. split; [apply C1|apply C2]; auto.
Qed.

Lemma XInv_set_pos md c s i p : XInv c s -> moved md c i s (set_pos_of s i p).
Proof.
  intros X. unfold set_pos_of. destruct (get_iter s i) as [it|] eqn:Ei; [|apply moved_refl; auto]. split.
  - apply (put_iter_stepped _ _ _ _ _ it); [exact Ei|apply bufs_step; repeat split|eapply XInv_put_same_held; eauto].
  - intros _ it0 it' H0 H' Ok. rewrite Ei in H0. inversion H0; subst it0. erewrite get_put_iter in H' by eauto. inversion H'; subst it'. exact Ok.
Qed.

Lemma XInv_iter_move md c s i m ex pk : XInv c s -> moved md c i s (fst (xiter_move md c s i m ex pk)).
Proof.
  intros X. unfold xiter_move.
  pose proof (moved_refl md c i s X) as Same.
  destruct (get_iter s i) as [it|] eqn:Ei; [|exact Same].
  destruct (xi_live it); [|exact Same].
  destruct (land (xi_srcs it) (xi_pos it) m _) as [p|]; [|exact Same].
  pose proof (XInv_children_move c i ex s X) as S1. set (s1 := children_move c s i ex) in *.
  pose proof (framed_moved md _ _ _ _ S1) as M1.
  assert (Pos : forall s2, moved md c i s s2 -> moved md c i s (set_pos_of s2 i p)).
  { intros s2 M2. eapply moved_trans; [exact M2|]. apply XInv_set_pos. eapply moved_inv; eauto. }
  assert (Exp : forall s2 d kr vr, moved md c i s s2 -> moved md c i s (set_pos_of (xexpose md c s2 i d kr vr) i p)).
  { intros s2 d kr vr M2. apply Pos. eapply moved_trans; [exact M2|]. apply XInv_expose. eapply moved_inv; eauto. }
  destruct p as [|n|]; cbn [fst]; try (apply Pos; assumption).
  destruct (nth_error (xi_srcs it) n) as [[k [e|tid bi d]]|]; cbn [fst]; try (apply Pos; assumption).
  - apply Exp; auto.
  - assert (M2 : moved md c i s (child_goto c s1 i tid bi pk)).
    { eapply moved_trans; [exact M1|]. apply framed_moved. apply XInv_child_goto. eapply stepped_inv; eauto. }
    destruct (get_iter (child_goto c s1 i tid bi pk) i) as [it2|]; cbn [fst]; [|exact M2].
    destruct (hold_of_tid (xi_held it2) tid); cbn [fst]; [apply Exp; auto|apply Pos; auto].
Qed.

Lemma XInv_iter_move2 md c s i m ex pk ex2 : XInv c s -> moved md c i s (fst (xiter_move2 md c s i m ex pk ex2)).
Proof.
  intros X. unfold xiter_move2. cbn [fst]. pose proof (XInv_iter_move md c s i m ex pk X) as M.
  destruct (snd (xiter_move md c s i m ex pk)) as [[| |[|]|]|]; auto.
  eapply moved_trans; [exact M|]. apply framed_moved. apply XInv_children_move. eapply moved_inv; eauto.
Qed.

Lemma RInv_app_r c b A R K : RInv c b (A ++ R) K -> RInv c b R K.
Proof. induction A; simpl; auto. intros H. apply IHA. apply (RInv_tail _ _ _ _ _ H). Qed.

Lemma XInv_release_all c i : forall fuel s, XInv c s -> stepped True (fun _ => False) c i s (release_all c s i fuel).
Proof.
  induction fuel; intros s X; cbn [release_all]; [apply stepped_refl; auto|].
  destruct (get_iter s i) as [it|]; [|apply stepped_refl; auto]. destruct (xi_held it) as [|h hs]; [apply stepped_refl; auto|].
  pose proof (XInv_child_drop c s i (h_tid h) X) as S1.
  eapply stepped_trans; [exact S1|apply IHfuel; eapply stepped_inv; eauto].
Qed.

Lemma XInv_kill c s i it : XInv c s -> get_iter s i = Some it -> XInv c (put_iter s i (it_kill it)).
Proof.
  intros [R N] Ei. destruct (holds_iter s i it Ei) as (Rr & P0 & P1). specialize (P1 (it_kill it)). cbn [xi_held it_kill] in P1.
  destruct (put_iter_claims s i it (it_kill it) Ei eq_refl eq_refl) as [Ec Eb].
  constructor; [|rewrite Eb; auto]. rewrite Ec. change (xbm (put_iter s i (it_kill it))) with (xbm s).
  eapply RInv_perm; [symmetry; exact P1|]. simpl. eapply RInv_app_r. eapply RInv_perm; [exact P0|exact R].
Qed.

(* Release: the children let their blocks go, the record is marked dead; what the caller saw last stays exposed *)
Lemma XInv_iter_release c s i : XInv c s ->
  stepped False (fun _ => False) c i s (xiter_release c s i) /\
  (forall it, get_iter s i = Some it -> exists it', get_iter (xiter_release c s i) i = Some it' /\
     xi_live it' = false /\ xi_exk it' = xi_exk it /\ xi_exv it' = xi_exv it).
Proof.
  intros X. unfold xiter_release.
  destruct (get_iter s i) as [it|] eqn:Ei; [|split; [apply stepped_refl; auto|intros it H; discriminate]].
  destruct (xi_live it) eqn:El; [|split; [apply stepped_refl; auto|intros it0 H; inversion H; subst; eauto]].
  pose proof (XInv_release_all c i (length (xi_held it)) s X) as S1. set (s1 := release_all c s i (length (xi_held it))) in *.
  pose proof S1 as (X1 & _ & (_ & _ & Si & _) & _). destruct (Si it Ei) as (it1 & H1 & [_ B]). rewrite H1.
  destruct (B I) as (_ & _ & _ & _ & _ & _ & B7 & B8). split.
  - eapply stepped_trans; [eapply stepped_weaken; [| |exact S1]; auto|].
    apply (put_iter_stepped _ _ _ _ _ it1); [exact H1|apply bufs_step; repeat split|apply XInv_kill; auto].
  - intros it0 H. inversion H; subst it0. exists (it_kill it1). split; [eapply get_put_iter; eauto|]. auto.
Qed.

Lemma XInv_alloc_claim c s x o : XInv c s -> claim_ok o = true ->
  RInv c (xbm (fst (xalloc s x o))) (all_holds s) ((length (xhp s), o) :: claims s).
Proof. intros [R N] Ho. unfold xalloc. cbn [fst xbm xset_bm]. apply RInv_alloc; auto. Qed.

Lemma claims_lt c s l : XInv c s -> In l (iter_bufs s) -> l < length (xhp s).
Proof. intros X Hin. eapply tag_lt. eapply iter_buf_tag; eauto. Qed.

Ltac incl_tauto :=
  let x := fresh "x" in let Hx := fresh "Hx" in
  intros x Hx; simpl in Hx |- *; rewrite ?in_app_iff in Hx; simpl in Hx; rewrite ?in_app_iff in Hx; simpl in Hx;
  rewrite ?in_app_iff; simpl; rewrite ?in_app_iff; tauto.

Lemma XInv_new_iter c s a : XInv c s -> XInv c (xnew_iter s a) /\ rest_kept s (xnew_iter s a) /\
  xiters (xnew_iter s a) = xiters s ++ [{| xi_kind := kind_of a; xi_kbuf := length (xhp s); xi_vbuf := S (length (xhp s));
       xi_exk := mkref (length (xhp s)) 0 0; xi_exv := mkref (S (length (xhp s))) 0 0;
       xi_srcs := canon (view_srcs s a); xi_pos := PSOI; xi_held := []; xi_live := true |}].
Proof.
  intros X. pose proof X as [R N]. unfold xnew_iter, xalloc. cbn [fst snd xbm xset_bm].
  set (b1 := fst (bm_alloc (xbm s) [] (DB KIter))).
  assert (L1 : length (bh b1) = S (length (xhp s))) by apply (bm_alloc_spec (xbm s) [] (DB KIter)).
  change (snd (bm_alloc (xbm s) [] (DB KIter))) with (length (xhp s)).
  change (snd (bm_alloc b1 [] (DB KIter))) with (length (bh b1)). rewrite L1.
  split; [|split; [repeat split|reflexivity]].
  constructor.
  - cbn [xbm xset_iters xset_bm].
    pose proof (RInv_alloc c b1 _ _ [] (DB KIter) (RInv_alloc c (xbm s) _ _ [] (DB KIter) R eq_refl) eq_refl) as R2. rewrite L1 in R2. change (bh (xbm s)) with (xhp s) in R2.
    eapply RInv_perm; [|eapply RInv_claims_incl; [|exact R2]].
    + unfold all_holds. cbn [xiters xcalls xset_iters xset_bm]. rewrite flat_map_app. simpl. rewrite app_nil_r. reflexivity.
    + unfold claims. cbn [xcvis xmem xtxn xiters xset_iters xset_bm]. rewrite flat_map_app. incl_tauto.
  - unfold iter_bufs. cbn [xiters xset_iters xset_bm]. rewrite flat_map_app. simpl.
    apply ListLemmas.NoDup_app_intro; auto.
    + constructor; [simpl; intros [H|[]]; lia|constructor; auto; constructor].
    + intros x Hx Hin. pose proof (claims_lt c s x X Hx). simpl in Hin. destruct Hin as [<-|[<-|[]]]; lia.
Qed.

Lemma holds_add_call s cl : Permutation (all_holds (xset_calls s (xcalls s ++ [cl]))) (ohold_list (c_hold cl) ++ all_holds s).
Proof.
  unfold all_holds. cbn [xiters xcalls xset_calls]. rewrite flat_map_app. simpl. rewrite app_nil_r.
  rewrite app_assoc. apply Permutation_app_comm.
Qed.

Lemma XInv_get_begin c s a k ex pk : XInv c s -> XInv c (xget_begin c s a k ex pk).
Proof.
  intros X. unfold xget_begin.
  destruct (XInv_touch c ex s X) as (X1 & _).
  set (s1 := touch_blocks c s ex) in *.
  assert (Plain : forall s2, XInv c s2 ->
            XInv c (xset_calls s2 (xcalls s2 ++ [{| c_kind := kind_of a; c_src := xfind s a k; c_hold := None; c_done := false |}]))).
  { intros s2 [R N]. constructor; auto. cbn [xbm xset_calls]. eapply RInv_perm; [symmetry; apply holds_add_call|]. simpl. exact R. }
  destruct (xfind s a k) as [[e|tid bi d]|] eqn:Ef; try (apply Plain; auto).
  pose proof (XInv_acquire c s1 tid bi pk X1) as A. destruct (xacquire_frame c s1 tid bi pk) as [K E].
  destruct (xacquire c s1 tid bi pk) as [s2 oh]. cbn [fst snd] in *. destruct A as (X2 & _ & Hh).
  destruct oh as [h|]; [|apply Plain; auto].
  destruct Hh as [Fit _]. rewrite <- (all_holds_eq s1 s2 K E) in Fit.
  pose proof X2 as [R N]. constructor; auto. cbn [xbm xset_calls].
  eapply RInv_perm; [symmetry; apply holds_add_call|]. simpl. apply RInv_add; auto.
Qed.

Lemma xfixed_slice c k : xfixed (XPGetTable k) c = Slice -> pool_on c = false /\ cache_on c = false.
Proof. unfold xfixed. destruct (pool_on c), (cache_on c); simpl; auto; discriminate. Qed.

Lemma XInv_cvis c s r : RInv c (xbm s) (all_holds s) ((rloc r, Client) :: claims s) -> NoDup (iter_bufs s) ->
  XInv c (xset_cvis s (r :: xcvis s)).
Proof. intros R N. constructor; auto. Qed.

Lemma XInv_get_end md c s j : get_modes_fixed md -> XInv c s -> XInv c (fst (xget_end md c s j)).
Proof.
  intros Md X. unfold xget_end. destruct (nth_error (xcalls s) j) as [cl|] eqn:Ej; [|auto].
  destruct (c_done cl); [auto|].
  set (fin := {| c_kind := c_kind cl; c_src := c_src cl; c_hold := None; c_done := true |}).
  set (s0 := xset_calls s (replace_nth j (xcalls s) fin)).
  destruct (holds_call s j cl Ej) as (Rr & P0 & P1). specialize (P1 fin). cbn [c_hold fin ohold_list app] in P1. fold s0 in P1.
  pose proof X as [R N].
  assert (Ec0 : claims s0 = claims s) by reflexivity. assert (Eb0 : iter_bufs s0 = iter_bufs s) by reflexivity.
  assert (R0 : RInv c (xbm s0) (all_holds s0) (claims s0) /\
               forall h, c_hold cl = Some h -> hold_fits c (xbm s0) (all_holds s0) h).
  { change (xbm s0) with (xbm s). rewrite Ec0. destruct (c_hold cl) as [h|] eqn:Eh; cbn [ohold_list app] in P0.
    - assert (Rh : RInv c (xbm s) (h :: Rr) (claims s)) by (eapply RInv_perm; [exact P0|exact R]).
      destruct (RInv_tail _ _ _ _ _ Rh) as [Rt Ft]. split.
      + eapply RInv_perm; [symmetry; exact P1|exact Rt].
      + intros h0 E0. inversion E0; subst. eapply hold_fits_perm; [symmetry; exact P1|exact Ft].
    - split; [|discriminate]. eapply RInv_perm; [|exact R]. rewrite P1. exact P0. }
  destruct R0 as [R0 Fit].
  assert (X0 : XInv c s0) by (constructor; auto).
  assert (RelOpt : XInv c (match c_hold cl with Some h => xrelease c s0 h | None => s0 end)).
  { destruct (c_hold cl) as [h|]; auto. apply XInv_release; auto. }
  destruct (c_src cl) as [[e|tid bi d]|] eqn:Es; cbn [fst]; auto.
  - (* a write buffer hit: a private copy *)
    destruct (Md (c_kind cl) c) as [Mm _]. rewrite Mm. unfold xtransfer, xalloc. cbn [fst snd].
    apply XInv_cvis; [exact (XInv_alloc_claim c s0 (deref (xhp s0) (mv e)) Client X0 eq_refl)|exact N].
  - destruct (c_hold cl) as [h|] eqn:Eh; cbn [fst]; auto.
    specialize (Fit h eq_refl). destruct (Md (c_kind cl) c) as [_ Mt]. rewrite Mt.
    destruct (xfixed (XPGetTable (c_kind cl)) c) eqn:Em.
    + (* copy, then release *)
      unfold xtransfer, xalloc. cbn [fst snd].
      set (x := deref (xhp s0) (mkref (h_loc h) (voff d) (vlen d))).
      apply XInv_cvis; [|exact N]. unfold xrelease. cbn [xbm xset_bm]. apply RInv_release.
      * exact (XInv_alloc_claim c s0 x Client X0 eq_refl).
      * apply hold_fits_alloc. exact Fit.
      * intros h' Hh Hc. eapply held_anywhere_spec; eauto.
    + (* slice: the private buffer of a disabled pool is handed over *)
      destruct (xfixed_slice _ _ Em) as [Ep Ecc].
      assert (Ek : h_kind h = HOwn).
      { apply (r_nocache _ _ _ _ R Ecc). eapply Permutation_in; [symmetry; exact P0|]. left. auto. }
      rewrite Ek. rewrite Ep. unfold hold_fits in Fit. rewrite Ek in Fit. destruct Fit as [Ft Fn].
      assert (Erel : xrelease c s0 h = xset_bm s0 (xbm s0)).
      { unfold xrelease, release_hold. rewrite Ek. unfold bpool_put. rewrite Ep. reflexivity. }
      rewrite Erel. apply XInv_cvis.
      * cbn [rloc mkref]. unfold xset_hp. cbn [xbm xset_bm]. apply RInv_handover; auto.
      * exact N.
Qed.

(* table.Writer: takes a pooled buffer, overwrites it, gives it back *)
Lemma RInv_writer c b H K n pick g : RInv c b H K -> RInv c (bm_writer c b n pick g) H K.
Proof.
  intros R. unfold bm_writer.
  pose proof (get_fill_spec c b n pick g (r_bm _ _ _ _ R)) as S. cbv zeta in S.
  destruct (bpool_get c b n pick) as [b1 l]. cbn [fst snd] in S. destruct S as (I2 & T2 & _ & C2 & W & _ & K2 & _).
  assert (R2 : RInv c (bm_hp b1 (hset (bh b1) l g)) H K).
  { eapply RInv_kept; eauto. intros m Hm. exists m. rewrite C2. split; auto. apply same_node_refl. }
  set (h := {| h_tid := 0; h_bi := 0; h_loc := l; h_kind := HOwn |}).
  change (bpool_put c (bm_hp b1 (hset (bh b1) l g)) l) with (release_hold c (bm_hp b1 (hset (bh b1) l g)) (fun _ => false) h).
  apply RInv_release; auto.
  - unfold hold_fits. cbn [h_kind h h_loc]. split.
    + exact T2.
    + intros Hin. apply own_locs_in in Hin. destruct Hin as (h' & Hh' & Ek & El).
      pose proof (r_own _ _ _ _ R h' Hh' Ek) as Ht. rewrite El in Ht. eapply not_was_pool; eauto. discriminate.
  - intros h' Hh' Hc. exfalso. unfold is_cache_hold in Hc. cbn [h_loc h] in Hc. destruct (h_kind h') eqn:Ek; [|discriminate].
    apply Nat.eqb_eq in Hc.
    pose proof (r_handle _ _ _ _ R h' Hh') as Hk. unfold handle_ok_b in Hk. rewrite Ek in Hk. destruct Hk as (m & Hm & E1 & _).
    pose proof (bi_cache _ (r_bm _ _ _ _ R) m Hm) as Htc. rewrite E1, Hc in Htc. eapply not_was_pool; eauto. discriminate.
Qed.

Lemma XInv_table_writer c s n pick g : XInv c s -> XInv c (table_writer c s n pick g).
Proof. intros [R N]. unfold table_writer. apply XInv_set_bm; [constructor; auto|]. apply RInv_writer. auto. Qed.

Lemma XInv_claims_same c s s' : XInv c s -> xbm s' = xbm s -> all_holds s' = all_holds s -> incl (claims s') (claims s) ->
  iter_bufs s' = iter_bufs s -> XInv c s'.
Proof.
  intros [R N] Eb Eh Ec Ei. constructor; [|rewrite Ei; auto]. rewrite Eb, Eh. eapply RInv_claims_incl; eauto.
Qed.

Lemma XInv_mem_put md c s m k v del q : XInv c s ->
  XInv c (fst (xmem_put md c s m k v del q)) /\ mkv (snd (xmem_put md c s m k v del q)) = mkv m /\
  rest_kept s (fst (xmem_put md c s m k v del q)) /\ xiters (fst (xmem_put md c s m k v del q)) = xiters s.
Proof.
  intros X. unfold xmem_put. cbn [fst snd mkv]. split; [unfold happend; apply XInv_hset; auto|]. split; auto. split; repeat split.
Qed.

Lemma XInv_put md c s k v del : XInv c s -> XInv c (xput md c s k v del).
Proof.
  intros X. unfold xput.
  destruct (XInv_mem_put md c s (xmem s) k v del (S (xseq s)) X) as (X1 & Em & K1 & E1).
  destruct (xmem_put md c s (xmem s) k v del (S (xseq s))) as [s1 m]. cbn [fst snd] in *.
  destruct K1 as (A1 & A2 & A3 & A4 & _).
  eapply XInv_claims_same; [exact X1|reflexivity|reflexivity| |reflexivity].
  unfold claims. cbn [xcvis xmem xtxn xiters xset_mem]. rewrite Em, A3. apply incl_refl.
Qed.

Lemma XInv_txn_put md c s k v del : XInv c s -> XInv c (xtxn_put md c s k v del).
Proof.
  intros X. unfold xtxn_put. destruct (xtxn s) as [t|] eqn:Et; auto.
  destruct (XInv_mem_put md c s (tmem t) k v del (S (xseq s)) X) as (X1 & Em & K1 & E1).
  destruct (xmem_put md c s (tmem t) k v del (S (xseq s))) as [s1 m]. cbn [fst snd] in *.
  destruct K1 as (A1 & A2 & A3 & A4 & _).
  eapply XInv_claims_same; [exact X1|reflexivity|reflexivity| |reflexivity].
  unfold claims. cbn [xcvis xmem xtxn xiters xset_mem xset_txn tmem]. rewrite Em, A4, Et. cbn [tmem]. apply incl_refl.
Qed.

(* a new arena takes the place of a write buffer *)
Lemma XInv_new_arena c s s' : XInv c s -> xbm s' = xbm (fst (xalloc s [] (DB KMem))) -> all_holds s' = all_holds s ->
  iter_bufs s' = iter_bufs s -> incl (claims s') ((length (xhp s), DB KMem) :: claims s) -> XInv c s'.
Proof.
  intros X Eb Eh Ei Ec. pose proof (XInv_alloc_claim c s [] (DB KMem) X eq_refl) as R. pose proof X as [_ N].
  constructor; [|rewrite Ei; auto]. rewrite Eb, Eh. eapply RInv_claims_incl; eauto.
Qed.

Lemma XInv_writer_tabs c s n pick g f l : XInv c s -> XInv c (xset_tabs (table_writer c s n pick g) f l).
Proof. intros X. eapply XInv_claims_same; [apply XInv_table_writer; exact X|reflexivity|reflexivity|apply incl_refl|reflexivity]. Qed.

Lemma XInv_flush c s pick : XInv c s -> XInv c (xflush c s pick).
Proof.
  intros X. unfold xflush.
  set (t := build_table (blk c) (mem_content (xhp s) (xmem s))).
  set (s1 := table_writer c s (N.of_nat (length (first_img t) + 5)) pick (first_img t)).
  set (s1' := xset_tabs s1 (xfiles s1 ++ [t]) (length (xfiles s1) :: xlive s1)).
  assert (X1' : XInv c s1') by (apply XInv_writer_tabs; exact X).
  apply (XInv_new_arena c s1' _ X1'); try reflexivity. unfold claims. cbn [fst snd xalloc xcvis xmem xtxn xiters xset_mem xset_bm mkv].
  incl_tauto.
Qed.

Lemma XInv_txn_flush c s pick : XInv c s -> XInv c (xtxn_flush c s pick).
Proof.
  intros X. unfold xtxn_flush. destruct (xtxn s) as [tx|] eqn:Et; auto.
  set (t := build_table (blk c) (mem_content (xhp s) (tmem tx))).
  set (s1 := table_writer c s (N.of_nat (length (first_img t) + 5)) pick (first_img t)).
  set (s1' := xset_tabs s1 (xfiles s1 ++ [t]) (xlive s1)).
  assert (X1' : XInv c s1') by (apply XInv_writer_tabs; exact X).
  apply (XInv_new_arena c s1' _ X1'); try reflexivity. unfold claims. cbn [fst snd xalloc xcvis xmem xtxn xiters xset_txn xset_bm tmem mkv].
  incl_tauto.
Qed.

Lemma XInv_txn_none c s : XInv c s -> XInv c (xset_txn s None).
Proof.
  intros X. eapply XInv_claims_same; [exact X|reflexivity|reflexivity| |reflexivity].
  unfold claims. cbn [xcvis xmem xtxn xiters xset_txn].
  incl_tauto.
Qed.

Lemma XInv_txn_commit c s pick : XInv c s -> XInv c (xtxn_commit c s pick).
Proof.
  intros X. unfold xtxn_commit. pose proof (XInv_txn_flush c s pick X) as X1.
  destruct (xtxn (xtxn_flush c s pick)) as [t|]; auto.
  apply XInv_txn_none. eapply XInv_claims_same; [exact X1|reflexivity|reflexivity|apply incl_refl|reflexivity].
Qed.

Lemma XInv_txn_open c s : XInv c s -> XInv c (xtxn_open s).
Proof.
  intros X. unfold xtxn_open. destruct (xtxn s) eqn:Et; auto.
  apply (XInv_new_arena c s _ X); try reflexivity. unfold claims. cbn [fst snd xalloc xcvis xmem xtxn xiters xset_txn xset_bm tmem mkv].
  incl_tauto.
Qed.

Lemma XInv_evict c s k : XInv c s -> XInv c (xevict c s k).
Proof.
  intros X. pose proof X as [R N]. unfold xevict. destruct (nth_error (xcache s) k) as [n|] eqn:Ek; auto.
  apply XInv_set_bm; auto. apply RInv_gc.
  - apply RInv_set_lru; auto.
  - intros h' Hh Hc. eapply held_anywhere_spec; eauto.
Qed.

Lemma XInv_pool_drop c s cls idx : XInv c s -> XInv c (xpool_drop s cls idx).
Proof.
  intros X. pose proof X as [R N]. unfold xpool_drop. apply XInv_set_bm; auto.
  destruct (pool_drop_shrinks (xpool s) cls idx) as (r & Hs). eapply RInv_pool_shrinks; eauto.
Qed.

Lemma XInv_scribble c s i pos g : XInv c s -> XInv c (xscribble s i pos g).
Proof. intros X. unfold xscribble. destruct (nth_error (xcvis s) i); auto. apply XInv_hset. auto. Qed.

Lemma XInv_init c pbase : XInv c (xinit pbase).
Proof.
  constructor.
  - constructor.
    + constructor; cbn; try constructor. intros l [].
      intros n [].
    + intros h [].
    + constructor.
    + intros h [].
    + cbn. intros l o [E|[]]. inversion E; subst. split; reflexivity.
    + intros _ h [].
  - constructor.
Qed.

(* every step keeps the invariant *)
Theorem XInv_step md c s o : get_modes_fixed md -> XInv c s -> XInv c (fst (xstep md c s o)).
Proof.
  intros Md X. destruct o; cbn [xstep fst].
  - destruct (is_some (xtxn s)); cbn [fst]; auto. apply XInv_put; auto.
  - destruct (is_some (xtxn s)); cbn [fst]; auto. apply XInv_put; auto.
  - eapply XInv_claims_same; [exact X|reflexivity|reflexivity|apply incl_refl|reflexivity].
  - apply XInv_get_begin; auto.
  - apply XInv_get_end; auto.
  - apply XInv_new_iter; auto.
  - apply XInv_iter_move2; auto.
  - auto.
  - apply XInv_iter_release; auto.
  - apply XInv_txn_open; auto.
  - apply XInv_txn_put; auto.
  - apply XInv_txn_put; auto.
  - apply XInv_txn_commit; auto.
  - apply XInv_txn_none; auto.
  - destruct (is_some (xtxn s)); cbn [fst]; auto. apply XInv_flush; auto.
  - apply XInv_txn_flush; auto.
  - apply XInv_evict; auto.
  - apply XInv_pool_drop; auto.
  - apply XInv_table_writer; auto.
  - apply XInv_scribble; auto.
Qed.

Lemma XInv_run md c : get_modes_fixed md -> forall p s, XInv c s -> XInv c (fst (xrun md c s p)).
Proof.
  intros Md. induction p as [|o p IH]; intros s X; cbn [xrun]; auto.
  pose proof (XInv_step md c s o Md X) as X1. destruct (xstep md c s o) as [s1 x]. cbn [fst] in X1.
  specialize (IH s1 X1). destruct (xrun md c s1 p) as [s2 xs]. cbn [fst] in *. auto.
Qed.

Lemma xfixed_get_modes : get_modes_fixed xfixed.
Proof. intros k c. split; reflexivity. Qed.

Theorem XInv_final c pbase p : XInv c (xfinal xfixed c pbase p).
Proof. unfold xfinal. apply XInv_run; [apply xfixed_get_modes|apply XInv_init]. Qed.

Lemma XInv_single_owner c s : XInv c s -> single_owner s.
Proof.
  intros [R N]. pose proof R as [R1 R2 R3 R4 R5 R6]. pose proof R1 as [B1 B2 B3 B4]. split.
  - unfold census. apply ListLemmas.NoDup_app_intro; auto; [apply ListLemmas.NoDup_app_intro; auto|].
    + intros l Hc Ho. apply in_map_iff in Hc. destruct Hc as (n & En & Hn). apply own_locs_in in Ho. destruct Ho as (h & Hh & Ek & El).
      pose proof (B2 n Hn) as T1. pose proof (R2 h Hh Ek) as T2. unfold xcache in *. rewrite En in T1. rewrite El in T2. congruence.
    + intros l Hp Hx. apply in_app_or in Hx. destruct Hx as [Hc|Ho].
      * apply in_map_iff in Hc. destruct Hc as (n & En & Hn). pose proof (B2 n Hn) as T1. pose proof (B1 l Hp) as T2.
        rewrite En in T1. congruence.
      * apply own_locs_in in Ho. destruct Ho as (h & Hh & Ek & El). pose proof (R2 h Hh Ek) as T1. pose proof (B1 l Hp) as T2.
        rewrite El in T1. congruence.
  - intros h Hh. specialize (R4 h Hh). unfold handle_ok, handle_ok_b in *. destruct (h_kind h); auto.
Qed.

Lemma XInv_separated c s : XInv c s -> xseparated s.
Proof.
  intros [R N]. pose proof R as [R1 R2 R3 R4 R5 R6]. pose proof R1 as [B1 B2 B3 B4]. split; [|split].
  - intros r Hr. apply (R5 (rloc r) Client). apply cvis_claim. exact Hr.
  - intros l Hl. unfold census in Hl. apply in_app_or in Hl. destruct Hl as [Hp|Hl]; [exists Pool; split; auto; apply B1; auto|].
    apply in_app_or in Hl. destruct Hl as [Hc|Ho].
    + apply in_map_iff in Hc. destruct Hc as (n & En & Hn). exists Cache. split; auto. rewrite <- En. apply B2. auto.
    + apply own_locs_in in Ho. destruct Ho as (h & Hh & Ek & El). exists (DB KBlock). split; auto. rewrite <- El. apply R2; auto.
  - intros it Hit l Hl. apply (R5 l (DB KIter)). apply iter_buf_claim. apply in_flat_map. eauto.
Qed.
