(* Alias/HeapProofs.v — lemmas about the heap of the ownership model (Alias/Heap.v). *)
From GL Require Import Alias.Heap.
From GL Require Mem.ListLemmas.
From Coq Require Import Arith Lia.
Local Open Scope nat_scope.

Lemma hupd_length h l f : length (hupd h l f) = length h.
Proof. revert l; induction h; intros [|l]; simpl; auto. Qed.

Lemma hupd_same h l f : nth_error (hupd h l f) l = option_map f (nth_error h l).
Proof. revert l; induction h; intros [|l]; simpl; auto. Qed.

Lemma hupd_other h l l' f : l <> l' -> nth_error (hupd h l f) l' = nth_error h l'.
Proof.
  revert l l'; induction h; intros [|l] [|l'] H; simpl; auto; try congruence.
Qed.

Lemma nth_error_app_l {A} (h x : list A) l : l < length h -> nth_error (h ++ x) l = nth_error h l.
Proof. intros; apply nth_error_app1; auto. Qed.

Lemma nth_error_app_some {A} (h x : list A) l c : nth_error h l = Some c -> nth_error (h ++ x) l = Some c.
Proof. intros H; rewrite nth_error_app1; auto. eapply ListLemmas.nth_error_Some_lt; eauto. Qed.

Lemma flat_map_nodup_elem {A B} (f : A -> list B) (l : list A) i a :
  NoDup (flat_map f l) -> nth_error l i = Some a -> NoDup (f a).
Proof.
  revert i. induction l as [|c l IH]; intros [|i] N H; simpl in *; try discriminate; apply ListLemmas.NoDup_app_iff in N.
  - injection H as ->. apply N.
  - eapply IH; eauto. apply N.
Qed.

Lemma flat_map_disj {A B} (f : A -> list B) (l : list A) : forall i j a b x,
  NoDup (flat_map f l) -> nth_error l i = Some a -> nth_error l j = Some b -> i <> j -> In x (f a) -> In x (f b) -> False.
Proof.
  induction l as [|c l IH]; intros [|i] [|j] a b x N Ha Hb Nij Hxa Hxb; simpl in *; try discriminate; try congruence;
    apply ListLemmas.NoDup_app_iff in N; destruct N as (_ & Nl & Hd).
  - injection Ha as ->. apply (Hd x Hxa). apply in_flat_map. exists b. split; auto. eapply nth_error_In; eauto.
  - injection Hb as ->. apply (Hd x Hxb). apply in_flat_map. exists a. split; auto. eapply nth_error_In; eauto.
  - eapply (IH i j); eauto.
Qed.

Lemma hget_hset_same h l b : l < length h -> hget (hset h l b) l = b.
Proof.
  intros H; unfold hget, hset; rewrite hupd_same.
  destruct (nth_error h l) eqn:E; simpl; auto. apply nth_error_None in E; lia.
Qed.

Lemma hget_hset_other h l l' b : l <> l' -> hget (hset h l b) l' = hget h l'.
Proof. intros; unfold hget, hset; rewrite hupd_other; auto. Qed.

Lemma hown_hset h l l' b : hown (hset h l b) l' = hown h l'.
Proof.
  unfold hown, hset. destruct (Nat.eq_dec l l') as [->|N].
  - rewrite hupd_same. destruct (nth_error h l'); auto.
  - rewrite hupd_other; auto.
Qed.

Lemma hget_hchown h l l' o : hget (hchown h l o) l' = hget h l'.
Proof.
  unfold hget, hchown. destruct (Nat.eq_dec l l') as [->|N].
  - rewrite hupd_same. destruct (nth_error h l'); auto.
  - rewrite hupd_other; auto.
Qed.

Lemma hown_hchown_same h l o : l < length h -> hown (hchown h l o) l = Some o.
Proof.
  intros H; unfold hown, hchown; rewrite hupd_same.
  destruct (nth_error h l) eqn:E; simpl; auto. apply nth_error_None in E; lia.
Qed.

Lemma hown_hchown_other h l l' o : l <> l' -> hown (hchown h l o) l' = hown h l'.
Proof. intros; unfold hown, hchown; rewrite hupd_other; auto. Qed.

Lemma hset_length h l b : length (hset h l b) = length h.
Proof. apply hupd_length. Qed.
Lemma hchown_length h l o : length (hchown h l o) = length h.
Proof. apply hupd_length. Qed.

Lemma hown_lt h l o : hown h l = Some o -> l < length h.
Proof. unfold hown; destruct (nth_error h l) eqn:E; try discriminate. intros _. eapply ListLemmas.nth_error_Some_lt; eauto. Qed.

Lemma hget_alloc_old h b o l : l < length h -> hget (fst (halloc h b o)) l = hget h l.
Proof. intros; unfold hget, halloc; simpl; rewrite nth_error_app1; auto. Qed.

Lemma hown_alloc_old h b o l : l < length h -> hown (fst (halloc h b o)) l = hown h l.
Proof. intros; unfold hown, halloc; simpl; rewrite nth_error_app1; auto. Qed.

Lemma hget_alloc_new h b o : hget (fst (halloc h b o)) (length h) = b.
Proof. unfold hget, halloc; simpl. rewrite nth_error_app2, Nat.sub_diag; auto. Qed.

Lemma hown_alloc_new h b o : hown (fst (halloc h b o)) (length h) = Some o.
Proof. unfold hown, halloc; simpl. rewrite nth_error_app2, Nat.sub_diag; auto. Qed.

Lemma halloc_length h b o : length (fst (halloc h b o)) = S (length h).
Proof. unfold halloc; simpl; rewrite app_length; simpl; lia. Qed.

Lemma hget_none h l : length h <= l -> hget h l = [].
Proof. intros H; unfold hget. destruct (nth_error h l) eqn:E; auto. apply ListLemmas.nth_error_Some_lt in E; lia. Qed.

Lemma sub_length b off len : off + len <= length b -> length (sub b off len) = len.
Proof. intros; unfold sub. rewrite firstn_length, skipn_length. lia. Qed.

Lemma sub_app b x off len : off + len <= length b -> sub (b ++ x) off len = sub b off len.
Proof.
  intros H; unfold sub. rewrite skipn_app.
  rewrite firstn_app, skipn_length.
  replace (len - (length b - off)) with 0 by lia. simpl. rewrite app_nil_r; auto.
Qed.

Lemma sub_prefix p b len : sub (p ++ b) (length p) len = firstn len b.
Proof.
  unfold sub. rewrite skipn_app, Nat.sub_diag, skipn_all. simpl; auto.
Qed.

Lemma sub_prefix_app p b x : sub (p ++ b ++ x) (length p) (length b) = b.
Proof.
  rewrite sub_prefix. rewrite firstn_app, Nat.sub_diag, firstn_all. simpl. apply app_nil_r.
Qed.

Lemma sub_all b : sub b 0 (length b) = b.
Proof. unfold sub; simpl. apply firstn_all. Qed.

Lemma overwrite_length b off g : length (overwrite b off g) = length b.
Proof.
  unfold overwrite. repeat rewrite app_length. rewrite firstn_length, skipn_length.
  set (g' := firstn (length b - off) g).
  assert (length g' <= length b - off) by (subst g'; rewrite firstn_length; lia).
  lia.
Qed.
