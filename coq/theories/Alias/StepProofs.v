(* Alias/StepProofs.v — every operation of the ownership model (fixed code) preserves the invariant and
   the relation to the plain map, and returns what the map returns.
   Each kind of operation comes with a frame, a record of what it leaves alone, through which Inv and Rel are
   carried: quiet (InvProofs.v; reads, the block path, evict), wframe (InvProofs.v; Put, Delete, appending to a
   batch or a transaction, client scribbles), frameB (Write of a batch: all but batch buffers stay), frameL
   (rotate, flush, compact, opening and ending a transaction: the layout changes), frameI (an iterator loading
   an entry into its buffers). *)
From GL Require Import Alias.Heap Alias.AliasModel Alias.HeapProofs Alias.ContentProofs Alias.InvProofs
  Alias.BlockProofs Alias.ReadProofs.
From GL Require Mem.ListLemmas.
From Coq Require Import Arith Lia.
Local Open Scope nat_scope.

(* what one step has to establish *)
Definition step_good (c : config) (s : state) (sp : sstate) (x : state * option out) (y : sstate * option out) : Prop :=
  Inv c (fst x) /\ Rel (fst x) (fst y) /\ snd x = snd y.

(* the client's list is invisible to Rel and to most of Inv *)
Lemma rel_set_cvis s sp v : Rel s sp -> Rel (set_cvis s v) sp.
Proof. intros R. destruct R. constructor; auto. Qed.

Lemma inv_set_cvis c s v :
  Inv c s -> (forall r, In r v -> own (hp s) (rloc r) Client) -> Inv c (set_cvis s v).
Proof. intros I V. destruct I. constructor; auto. Qed.

Lemma txn_some_agree s sp : Rel s sp -> is_some (txn s) = is_some (stxn sp).
Proof. intros R. pose proof (r_txn _ _ R) as T. destruct (txn s), (stxn sp); simpl; auto; contradiction. Qed.

Lemma client_buf_ok c s sp b :
  Inv c s -> Rel s sp ->
  Inv c (fst (client_buf s b)) /\ Rel (fst (client_buf s b)) sp /\ quiet s (fst (client_buf s b)) /\
  cvis (fst (client_buf s b)) = snd (client_buf s b) :: cvis s /\
  own (hp (fst (client_buf s b))) (rloc (snd (client_buf s b))) Client /\
  deref (hp (fst (client_buf s b))) (snd (client_buf s b)) = b /\
  snd (client_buf s b) = mkref (length (hp s)) 0 (length b).
Proof.
  intros I R. unfold client_buf, alloc. cbv beta iota zeta. cbn [fst snd].
  replace (snd (halloc (hp s) b Client)) with (length (hp s)) by reflexivity.
  set (h1 := fst (halloc (hp s) b Client)).
  assert (quiet s (set_cvis (set_hp s h1) (mkref (length (hp s)) 0 (length b) :: cvis s))) as Q.
  { constructor; auto. simpl. apply keep_alloc. }
  assert (own h1 (length (hp s)) Client) as O by apply own_alloc_new.
  split; [|split; [|split; [|split; [|split; [|split]]]]]; auto.
  - eapply inv_quiet; eauto.
    + simpl. exact (blockinv_alloc c s b Client (i_block _ _ I)).
    + simpl. intros r [<-|Hin]; simpl; auto. apply own_alloc_old. apply I; auto.
  - eapply rel_quiet; eauto.
  - unfold deref; simpl. unfold h1. rewrite hget_alloc_new. apply sub_all.
Qed.

Definition notclient (o : owner) : bool := match o with Client => false | _ => true end.

Lemma wframe_refl s : wframe s s.
Proof.
  constructor; auto.
  - apply memgrow_refl.
  - apply keep_refl.
  - intros l H. split; auto. exists []. rewrite app_nil_r; auto.
Qed.

Lemma scribble_wframe c s i pos g : Inv c s -> wframe s (scribble s i pos g) /\ cvis (scribble s i pos g) = cvis s
  /\ mem (scribble s i pos g) = mem s /\ txn (scribble s i pos g) = txn s /\ cbatch (scribble s i pos g) = cbatch s.
Proof.
  intros I. unfold scribble. destruct (nth_error (cvis s) i) as [r|] eqn:E.
  - assert (own (hp s) (rloc r) Client) as O by (apply I; eapply nth_error_In; eauto).
    assert (keep notclient (hp s) (hset (hp s) (rloc r) (overwrite (hget (hp s) (rloc r)) (roff r + pos) g))) as K
      by (eapply keep_hset; eauto).
    split; [|simpl; auto].
    constructor; simpl; auto.
    + eapply keep_memgrow; [|exact K]; auto.
    + eapply keep_weaken; [|exact K]. intros [| |[]| |]; simpl; auto; discriminate.
    + intros l o Ho. apply own_hset. auto.
    + eapply keep_batgrow; [|exact K]; auto.
  - split; auto. apply wframe_refl.
Qed.

Lemma wframe_content_same c s s' :
  Inv c s -> wframe s s' -> mem s' = mem s -> content s' = content s.
Proof.
  intros I W Em. apply content_frame; try apply W; try apply I; auto.
  apply wframe_files_ext; auto.
Qed.

Lemma rel_wframe_same c s s' sp :
  Inv c s -> wframe s s' -> mem s' = mem s -> txn s' = txn s -> cbatch s' = cbatch s -> Rel s sp -> Rel s' sp.
Proof.
  intros I W Em Et Ec R. constructor.
  - rewrite (wframe_content_same c s s'); auto. apply R.
  - apply (rel_txn_frame c s s' sp I R (w_grow _ _ W) Et (wframe_content_same c s s' I W Em)).
    intros t _. apply wframe_tabs_content; auto.
  - apply (rel_bat_frame c s s' sp I R (w_bat _ _ W) Ec).
  - eapply wframe_iters_rel; eauto; try apply I; try apply R.
Qed.

Lemma inv_wframe_same c s s' :
  Inv c s -> wframe s s' -> mem s' = mem s -> txn s' = txn s -> cbatch s' = cbatch s -> cvis s' = cvis s -> Inv c s'.
Proof.
  intros I W Em Et Ec Ev. eapply inv_wframe; eauto.
  - rewrite Em. eapply memdb_ok_grow; [apply W|apply I].
  - rewrite Et. eapply omemdb_ok_grow; [apply W|apply I].
  - unfold txn_tabs. rewrite Et. auto.
  - eapply wframe_cbatch_ok; eauto. apply I.
  - rewrite Ev. intros r Hr. apply W. apply I; auto.
  - rewrite Et. intros H. unfold empty_mems. rewrite Em, (w_frozen _ _ W). apply I; auto.
Qed.

Lemma step_scribble c s sp i pos g :
  Inv c s -> Rel s sp -> step_good c s sp (step fixed_modes c s (CScribble i pos g)) (sstep sp (CScribble i pos g)).
Proof.
  intros I R. simpl. destruct (scribble_wframe c s i pos g I) as (W & Ev & Em & Et & Ec).
  split; [|split]; simpl; auto.
  - eapply inv_wframe_same; eauto.
  - eapply rel_wframe_same; eauto.
Qed.

Lemma get_out_ok c s0 s sp (aux : option txnst) k r spv :
  Inv c s0 -> Rel s0 sp -> aux_ok s0 aux -> getspec c s0 k (view s0 aux) (s, r) ->
  lookup_eq (view s0 aux) spv ->
  Inv c (fst (get_out s r)) /\ Rel (fst (get_out s r)) sp /\ snd (get_out s r) = Some (OVal (glookup k spv)).
Proof.
  intros I R A (Q & B & V & RC & RV) L. cbn [fst snd] in *.
  destruct (quiet_ok c s0 s sp I R Q B V) as [Is Rs].
  assert (flatten (res_val (hp s) r) = glookup k spv) as EO by (rewrite RV, <- glookup_flatten; apply L).
  unfold get_out. destruct r as [[v|]|]; cbn [fst snd] in *.
  - split; [|split].
    + apply inv_set_cvis; auto. intros x [<-|Hx]; auto. apply Is; auto.
    + apply rel_set_cvis; auto.
    + rewrite <- EO. auto.
  - rewrite <- EO. auto.
  - rewrite <- EO. auto.
Qed.

Lemma step_get c s sp k :
  Inv c s -> Rel s sp -> step_good c s sp (step fixed_modes c s (OGet k)) (sstep sp (OGet k)).
Proof.
  intros I R. cbn [step sstep].
  destruct (client_buf_ok c s sp k I R) as (I1 & R1 & Q1 & V1 & O1 & D1 & E1).
  destruct (client_buf s k) as [s1 kr]. cbn [fst snd] in *.
  pose proof (db_get_ok c s1 None k I1 Logic.I) as G.
  destruct (db_get fixed_modes c s1 None k) as [s2 r].
  destruct (get_out_ok c s1 s2 sp None k r (sbase sp) I1 R1 Logic.I G (r_base _ _ R1)) as (I2 & R2 & EO).
  destruct (get_out s2 r) as [s3 o]. cbn [fst snd] in *. split; [|split]; auto.
Qed.

Lemma step_txnget c s sp k :
  Inv c s -> Rel s sp -> step_good c s sp (step fixed_modes c s (OTxnGet k)) (sstep sp (OTxnGet k)).
Proof.
  intros I R. cbn [step sstep]. pose proof (r_txn _ _ R) as T.
  destruct (txn s) as [t|] eqn:ET; destruct (stxn sp) as [ov|] eqn:ES; try contradiction.
  2:{ split; [|split]; auto. }
  destruct (client_buf_ok c s sp k I R) as (I1 & R1 & Q1 & V1 & O1 & D1 & E1).
  destruct (client_buf s k) as [s1 kr]. cbn [fst snd] in *.
  assert (txn s1 = Some t) as ET1 by (rewrite (q_txn _ _ Q1); auto).
  pose proof (db_get_ok c s1 (Some t) k I1 ET1) as G.
  destruct (db_get fixed_modes c s1 (Some t) k) as [s2 r].
  pose proof (r_txn _ _ R1) as T1. rewrite ET1, ES in T1.
  destruct (get_out_ok c s1 s2 sp (Some t) k r ov I1 R1 ET1 G T1) as (I2 & R2 & EO).
  destruct (get_out s2 r) as [s3 o]. cbn [fst snd] in *. split; [|split]; auto.
Qed.

Lemma step_has c s sp k :
  Inv c s -> Rel s sp -> step_good c s sp (step fixed_modes c s (OHas k)) (sstep sp (OHas k)).
Proof.
  intros I R. cbn [step sstep].
  destruct (client_buf_ok c s sp k I R) as (I1 & R1 & Q1 & V1 & O1 & D1 & E1).
  destruct (client_buf s k) as [s1 kr]. cbn [fst snd] in *.
  pose proof (db_has_ok c s1 k I1) as (Q & B & V & RV).
  destruct (db_has c s1 k) as [s2 r]. cbn [fst snd] in *.
  destruct (quiet_ok c s1 s2 sp I1 R1 Q B V) as [I2 R2]. split; [exact I2|split; [exact R2|]]. simpl.
  rewrite RV. pose proof (r_base _ _ R1 k) as L. unfold glookup in L. unfold glookup.
    destruct (assoc k (content s1)) as [[v|]|]; destruct (assoc k (sbase sp)) as [[v'|]|]; simpl; try discriminate; auto.
Qed.

Lemma batgrow_trans h1 h2 h3 : batgrow h1 h2 -> batgrow h2 h3 -> batgrow h1 h3.
Proof. exact (grows_trans ClientBatch h1 h2 h3). Qed.

Lemma wframe_trans s1 s2 s3 : wframe s1 s2 -> wframe s2 s3 -> wframe s1 s3.
Proof.
  intros A B. destruct A, B. constructor; try congruence.
  - eapply memgrow_trans; eauto.
  - eapply keep_trans; eauto.
  - auto.
  - eapply batgrow_trans; eauto.
Qed.

(* a heap update that touches only cells of owner class "not P", with P covering what wk covers and batch
   buffers, keeps owners and lets arenas grow *)
Lemma wframe_set_hp s h' (P : owner -> bool) :
  keep P (hp s) h' -> memgrow (hp s) h' -> (forall l o, own (hp s) l o -> own h' l o) ->
  (forall o, wk o = true -> P o = true) -> P ClientBatch = true ->
  wframe s (set_hp s h').
Proof.
  intros K G O HP HB. constructor; simpl; auto.
  - eapply keep_weaken; eauto.
  - eapply keep_batgrow; eauto.
Qed.

Lemma wframe_alloc s b o : wframe s (fst (alloc s b o)).
Proof.
  unfold alloc; simpl. apply (wframe_set_hp s _ (fun _ => true)); auto.
  - apply keep_alloc.
  - eapply keep_memgrow; [|apply (keep_alloc (fun _ => true))]; auto.
  - intros l o' H. apply own_alloc_old; auto.
Qed.

Lemma memgrow_hset_other h l b o : own h l o -> o <> DB KMem -> memgrow h (hset h l b).
Proof.
  intros O N. split; [rewrite hset_length; lia|]. intros l' H. split.
  - apply own_hset; auto.
  - exists []. rewrite app_nil_r. apply hget_hset_other. eapply own_diff; eauto.
Qed.

Lemma wframe_hset s l b o :
  own (hp s) l o -> wk o = false -> o <> ClientBatch -> o <> DB KMem ->
  wframe s (set_hp s (hset (hp s) l b)).
Proof.
  intros O W N1 N2. apply (wframe_set_hp s _ (fun o' => negb (owner_eqb o' o))).
  - eapply keep_hset; eauto. destruct o as [| |[]| |]; auto.
  - eapply memgrow_hset_other; eauto.
  - intros l' o' H. apply own_hset; auto.
  - intros o' H. destruct o as [| |[]| |], o' as [| |[]| |]; simpl in *; auto; discriminate.
  - destruct o as [| |[]| |]; simpl; auto; congruence.
Qed.

Lemma wframe_happend_mem s l b : own (hp s) l (DB KMem) -> wframe s (set_hp s (happend (hp s) l b)).
Proof.
  intros O. unfold happend. apply (wframe_set_hp s _ (fun o' => negb (owner_eqb o' (DB KMem)))); auto.
  - eapply keep_hset; eauto.
  - apply (memgrow_happend (hp s) l b).
  - intros l' o' H. apply own_hset; auto.
  - intros [| |[]| |]; simpl; auto; discriminate.
Qed.

Lemma client_buf_wframe s b :
  wframe s (fst (client_buf s b)) /\ mem (fst (client_buf s b)) = mem s /\ txn (fst (client_buf s b)) = txn s /\
  cbatch (fst (client_buf s b)) = cbatch s.
Proof.
  unfold client_buf, alloc. cbv beta iota zeta. cbn [fst snd]. split; [|simpl; auto].
  pose proof (wframe_alloc s b Client) as W. unfold alloc in W. cbn [fst] in W.
  destruct W. constructor; auto.
Qed.

(* appending a record to an arena (any owner): layout and contents *)
Lemma arena_append h l o es kb vb del :
  own h l o -> Forall (ment_ok h l) es ->
  let old := length (hget h l) in
  let e := {| mk := mkref l old (length kb); mv := mkref l (old + length kb) (length vb); mdel := del |} in
  let h' := happend h l (kb ++ vb) in
  Forall (ment_ok h' l) (e :: es) /\
  mem_content h' {| mkv := l; mds := e :: es |} = (kb, if del then None else Some vb) :: mem_content h {| mkv := l; mds := es |}.
Proof.
  intros O F old e h'.
  assert (hget h' l = hget h l ++ kb ++ vb) as G by (unfold h', happend; apply hget_hset_same; eapply own_lt; eauto).
  assert (forall r, rloc r = l -> ref_in h r -> ref_in h' r /\ deref h' r = deref h r) as ST.
  { intros r E Rr. unfold ref_in, deref in *. rewrite E in *. rewrite G. split.
    - rewrite app_length. lia.
    - apply sub_app. auto. }
  split.
  - constructor.
    + unfold ment_ok, ref_in; simpl. rewrite G, !app_length. fold old. repeat split; auto; lia.
    + eapply Forall_impl; [|exact F]. intros x (E1 & E2 & R1 & R2).
      repeat split; auto; apply ST; auto.
  - unfold mem_content. cbn [mds map mk mv mdel e]. f_equal.
    + f_equal.
      * unfold deref; cbn [mkref rloc roff rlen]. rewrite G. apply sub_prefix_app.
      * destruct del; auto. f_equal. unfold deref; cbn [mkref rloc roff rlen]. rewrite G.
        replace (hget h l ++ kb ++ vb) with ((hget h l ++ kb) ++ vb ++ []) by (rewrite app_nil_r, <- app_assoc; auto).
        replace (old + length kb) with (length (hget h l ++ kb)) by (rewrite app_length; auto).
        apply sub_prefix_app.
    + apply map_ext_in. intros x Hx. eapply Forall_forall in F; eauto. destruct F as (E1 & E2 & R1 & R2).
      destruct (ST _ E1 R1) as [_ ->]. destruct (mdel x); auto. destruct (ST _ E2 R2) as [_ ->]. auto.
Qed.

Lemma memdb_put_ok c s m kr vr del :
  memdb_ok (hp s) m ->
  exists h',
    fst (memdb_put fixed_modes c s m kr vr del) = set_hp s h' /\
    h' = happend (hp s) (mkv m) (deref (hp s) kr ++ (if del then [] else deref (hp s) vr)) /\
    mkv (snd (memdb_put fixed_modes c s m kr vr del)) = mkv m /\
    memdb_ok h' (snd (memdb_put fixed_modes c s m kr vr del)) /\
    mem_content h' (snd (memdb_put fixed_modes c s m kr vr del)) =
      (deref (hp s) kr, if del then None else Some (deref (hp s) vr)) :: mem_content (hp s) m.
Proof.
  intros [O F]. unfold memdb_put. cbn [fixed_modes]. cbv beta iota zeta. cbn [fst snd].
  destruct (arena_append (hp s) (mkv m) (DB KMem) (mds m) (deref (hp s) kr) (if del then [] else deref (hp s) vr) del O F) as [FA CA].
  eexists. split; [reflexivity|]. split; [reflexivity|]. split; [reflexivity|]. split.
  - split; [apply memgrow_happend; exact O|exact FA].
  - rewrite CA. destruct m. destruct del; reflexivity.
Qed.

Definition sp_base (sp : sstate) (b : amap) : sstate :=
  {| sbase := b; stxn := stxn sp; sbat := sbat sp; sits := sits sp |}.

(* one memdb.Put into the live write buffer (no transaction open) *)
Lemma put_into_mem c s sp kr vr del :
  Inv c s -> Rel s sp -> txn s = None ->
  let x := memdb_put fixed_modes c s (mem s) kr vr del in
  let s' := set_mem (fst x) (snd x) in
  Inv c s' /\
  Rel s' (sp_base sp ((deref (hp s) kr, if del then None else Some (deref (hp s) vr)) :: sbase sp)) /\
  cvis s' = cvis s /\ cbatch s' = cbatch s /\ txn s' = None /\ wframe s s'.
Proof.
  intros I R ET. cbv zeta.
  destruct (memdb_put_ok c s (mem s) kr vr del (i_mem _ _ I)) as (h' & E1 & Eh & Ekv & MO & MC).
  remember (memdb_put fixed_modes c s (mem s) kr vr del) as x eqn:Ex. clear Ex.
  remember (set_mem (fst x) (snd x)) as s' eqn:Es0.
  assert (wframe s (set_hp s h')) as W0 by (rewrite Eh; apply wframe_happend_mem; apply I).
  assert (s' = set_mem (set_hp s h') (snd x)) as Es' by (rewrite Es0, E1; auto).
  clear Es0.
  assert (wframe s s') as W by (rewrite Es'; destruct W0; constructor; auto).
  assert (hp s' = h') as Eh' by (rewrite Es'; auto).
  assert (mem s' = snd x) as Em' by (rewrite Es'; auto).
  assert (cvis s' = cvis s /\ cbatch s' = cbatch s /\ txn s' = txn s) as (Ev & Ec & Et) by (rewrite Es'; simpl; auto).
  clear Es'.
  split; [|split; [|split; [|split; [|split]]]]; auto; try congruence.
  - apply (inv_wframe c s s' I W).
    + rewrite Eh', Em'. auto.
    + rewrite Et, ET. simpl. auto.
    + unfold txn_tabs. rewrite Et. auto.
    + eapply wframe_cbatch_ok; eauto. apply I.
    + rewrite Ev. intros r Hr. apply W. apply I; auto.
    + rewrite Et, ET. congruence.
  - constructor.
    + unfold sp_base; cbn [sbase]. unfold content. rewrite Em'. rewrite Eh' at 1. rewrite MC.
      rewrite (wframe_ocontent_frozen c s s'), (wframe_tabs_content s s'), (w_l0 _ _ W), (w_deep _ _ W) by auto.
      simpl. apply lookup_eq_cons. apply R.
    + rewrite Et, ET. unfold sp_base; cbn [stxn]. pose proof (r_txn _ _ R) as T. rewrite ET in T. exact T.
    + apply (rel_bat_frame c s s' sp I R (w_bat _ _ W) Ec).
    + unfold sp_base; cbn [sits]. apply (wframe_iters_rel s s'); auto; try apply I; try apply R.
Qed.

Lemma sub_first a b : sub (a ++ b) 0 (length a) = a.
Proof. apply (sub_prefix_app [] a b). Qed.

Lemma sub_second a b : sub (a ++ b) (length a) (length b) = b.
Proof. replace (a ++ b) with (a ++ b ++ []) by (rewrite app_nil_r; auto). apply sub_prefix_app. Qed.

Lemma value_buf_ok c s sp kr v (del : bool) : Inv c s -> Rel s sp -> own (hp s) (rloc kr) Client ->
  let x := if del then (s, mkref (rloc kr) 0 0) else client_buf s v in
  Inv c (fst x) /\ Rel (fst x) sp /\ txn (fst x) = txn s /\ deref (hp (fst x)) kr = deref (hp s) kr /\
  (del = false -> deref (hp (fst x)) (snd x) = v).
Proof.
  intros I R O. destruct del; cbn [fst snd]; [split; auto; split; auto; split; auto; split; auto; discriminate|].
  destruct (client_buf_ok c s sp v I R) as (Ia & Ra & Qa & _ & _ & Da & _).
  split; auto. split; auto. split; [apply Qa|]. split; [|auto]. unfold deref. erewrite keep_get; [reflexivity|apply Qa|exact O|auto].
Qed.

Lemma step_put_rec c s sp k v del :
  Inv c s -> Rel s sp -> txn s = None ->
  Inv c (put_rec fixed_modes c s k v del) /\
  Rel (put_rec fixed_modes c s k v del) (sp_base sp ((k, if del then None else Some v) :: sbase sp)).
Proof.
  intros I R ET. unfold put_rec.
  destruct (client_buf_ok c s sp k I R) as (I1 & R1 & Q1 & V1 & O1 & D1 & E1).
  pose proof (client_buf_wframe s k) as (W1 & M1 & T1 & C1).
  destruct (client_buf s k) as [s1 kr]. cbn [fst snd] in *.
  generalize (value_buf_ok c s1 sp kr v del I1 R1 O1). cbv zeta.
  destruct (if del then (s1, mkref (rloc kr) 0 0) else client_buf s1 v) as [s2 vr]. cbn [fst snd].
  intros (I2 & R2 & T2 & _). rewrite T1, ET in T2. cbn [fixed_modes]. cbv beta iota zeta.
  set (vb := if del then [] else v).
  set (s3 := set_hp s2 (hset (hp s2) (wbatch s2) (k ++ vb))).
  assert (wframe s2 s3) as W3
    by (apply (wframe_hset s2 (wbatch s2) _ (DB KBatch) (i_wbatch _ _ I2)); [reflexivity|discriminate|discriminate]).
  assert (Inv c s3) as I3 by (exact (inv_wframe_same c s2 s3 I2 W3 eq_refl eq_refl eq_refl eq_refl)).
  assert (Rel s3 sp) as R3 by (exact (rel_wframe_same c s2 s3 sp I2 W3 eq_refl eq_refl eq_refl R2)).
  assert (txn s3 = None) as T3 by auto.
  assert (hget (hp s3) (wbatch s2) = k ++ vb) as G3
    by (simpl; apply hget_hset_same; eapply own_lt; exact (i_wbatch _ _ I2)).
  pose proof (put_into_mem c s3 sp (mkref (wbatch s2) 0 (length k)) (mkref (wbatch s2) (length k) (length vb)) del I3 R3 T3)
    as (I4 & R4 & _).
  assert (deref (hp s3) (mkref (wbatch s2) 0 (length k)) = k) as DK
    by (unfold deref; cbn [rloc roff rlen mkref]; rewrite G3; apply sub_first).
  assert (deref (hp s3) (mkref (wbatch s2) (length k) (length vb)) = vb) as DV
    by (unfold deref; cbn [rloc roff rlen mkref]; rewrite G3; apply sub_second).
  rewrite DK, DV in R4.
  replace (wbatch s3) with (wbatch s2) by auto.
  destruct (memdb_put fixed_modes c s3 (mem s3) (mkref (wbatch s2) 0 (length k)) (mkref (wbatch s2) (length k) (length vb)) del)
    as [s4 m] eqn:EM. cbn [fst snd] in *.
  split; auto.
  replace (if del then None else Some v) with (if del then None else Some vb); auto.
  unfold vb. destruct del; auto.
Qed.

Definition sp_bat (sp : sstate) (b : amap) : sstate :=
  {| sbase := sbase sp; stxn := stxn sp; sbat := b; sits := sits sp |}.

Lemma wframe_happend_bat s l b : own (hp s) l ClientBatch -> wframe s (set_hp s (happend (hp s) l b)).
Proof.
  intros O. unfold happend.
  assert (keep (fun o' => negb (owner_eqb o' ClientBatch)) (hp s) (hset (hp s) l (hget (hp s) l ++ b))) as K
    by (eapply keep_hset; eauto).
  constructor; simpl; auto.
  - eapply memgrow_hset_other; eauto. discriminate.
  - eapply keep_weaken; [|exact K]. intros [| |[]| |]; simpl; auto; discriminate.
  - intros l' o' H. apply own_hset; auto.
  - intros l' H. split; [apply own_hset; auto|].
    destruct (Nat.eq_dec l l') as [->|N].
    + exists b. apply hget_hset_same. eapply own_lt; eauto.
    + exists []. rewrite app_nil_r. apply hget_hset_other; auto.
Qed.

Lemma step_batch_append c s sp k v del :
  Inv c s -> Rel s sp ->
  Inv c (batch_append fixed_modes c s k v del) /\
  Rel (batch_append fixed_modes c s k v del) (sp_bat sp ((k, if del then None else Some v) :: sbat sp)).
Proof.
  intros I R. unfold batch_append.
  destruct (client_buf_ok c s sp k I R) as (I1 & R1 & Q1 & V1 & O1 & D1 & E1).
  destruct (client_buf s k) as [s1 kr]. cbn [fst snd] in *.
  generalize (value_buf_ok c s1 sp kr v del I1 R1 O1). cbv zeta.
  destruct (if del then (s1, mkref (rloc kr) 0 0) else client_buf s1 v) as [s2 vr]. cbn [fst snd]. intros (I2 & R2 & _).
  assert (exists s3 bl recs,
            match cbatch s2 with
            | Some (bl0, recs0) => (s2, bl0, recs0)
            | None => let (s', bl0) := alloc s2 [] ClientBatch in (s', bl0, [])
            end = (s3, bl, recs) /\
            Inv c s3 /\ Rel s3 sp /\ own (hp s3) bl ClientBatch /\ Forall (ment_ok (hp s3) bl) recs /\
            mem_content (hp s3) {| mkv := bl; mds := recs |} = sbat sp) as (s3 & bl & recs & E3 & I3 & R3 & O3 & F3 & C3).
  { pose proof (i_cbatch _ _ I2) as CB. pose proof (r_bat _ _ R2) as RB. unfold cbatch_ok in CB.
    destruct (cbatch s2) as [[bl0 recs0]|] eqn:EC.
    - exists s2, bl0, recs0. destruct CB. auto 10.
    - unfold alloc. cbn [fst snd]. eexists _, _, _. split; [reflexivity|].
      pose proof (wframe_alloc s2 [] ClientBatch) as W. unfold alloc in W. cbn [fst] in W.
      split; [|split; [|split; [|split]]].
      + apply (inv_wframe_same c s2 _ I2 W); auto.
      + apply (rel_wframe_same c s2 _ sp I2 W); auto.
      + simpl. apply own_alloc_new.
      + constructor.
      + rewrite RB. auto. }
  rewrite E3. clear E3. cbn [fixed_modes]. cbv beta iota zeta.
  set (vb := if del then [] else v).
  destruct (arena_append (hp s3) bl ClientBatch recs k vb del O3 F3) as [FA CA].
  set (e := {| mk := mkref bl (length (hget (hp s3) bl)) (length k);
               mv := mkref bl (length (hget (hp s3) bl) + length k) (length vb); mdel := del |}) in *.
  set (h' := happend (hp s3) bl (k ++ vb)) in *.
  pose proof (wframe_happend_bat s3 bl (k ++ vb) O3) as W. fold h' in W.
  set (s' := set_cbatch (set_hp s3 h') (Some (bl, e :: recs))).
  assert (wframe s3 s') as W' by (destruct W; constructor; auto).
  split.
  - apply (inv_wframe c s3 s' I3 W'); simpl.
    + eapply memdb_ok_grow; [apply W|apply I3].
    + eapply omemdb_ok_grow; [apply W|apply I3].
    + auto.
    + unfold cbatch_ok; simpl. split; auto. apply W; auto.
    + intros r Hr. apply W. apply I3; auto.
    + apply I3.
  - constructor.
    + unfold sp_bat; cbn [sbase]. rewrite (wframe_content_same c s3 s'); auto. apply R3.
    + apply (rel_txn_frame c s3 s' sp I3 R3 (w_grow _ _ W') eq_refl (wframe_content_same c s3 s' I3 W' eq_refl)).
      intros t _. apply wframe_tabs_content; auto.
    + unfold sp_bat; cbn [sbat]. simpl. rewrite CA, C3.
      unfold vb. destruct del; auto.
    + unfold sp_bat; cbn [sits]. apply (wframe_iters_rel s3 s'); auto; try apply I3; try apply R3.
Qed.

Lemma rel_sp_base_same s sp : Rel s sp -> Rel s (sp_base sp (sbase sp)).
Proof. intros R. destruct R. constructor; auto. Qed.

Lemma mem_content_rev h l rs : mem_content h {| mkv := l; mds := rev rs |} = rev (mem_content h {| mkv := l; mds := rs |}).
Proof. unfold mem_content; simpl. apply map_rev. Qed.

Lemma put_mem_ok c : forall rs s sp bl,
  Inv c s -> Rel s sp -> txn s = None -> own (hp s) bl ClientBatch -> Forall (ment_ok (hp s) bl) rs ->
  Inv c (put_mem fixed_modes c s rs) /\
  Rel (put_mem fixed_modes c s rs) (sp_base sp (rev (mem_content (hp s) {| mkv := bl; mds := rs |}) ++ sbase sp)) /\
  cvis (put_mem fixed_modes c s rs) = cvis s /\ cbatch (put_mem fixed_modes c s rs) = cbatch s /\
  txn (put_mem fixed_modes c s rs) = None /\ wframe s (put_mem fixed_modes c s rs).
Proof.
  induction rs as [|e rs IH]; intros s sp bl I R ET O F.
  - simpl. split; [auto|]. split; [apply rel_sp_base_same; auto|]. split; [auto|]. split; [auto|]. split; [auto|apply wframe_refl].
  - cbn [put_mem].
    pose proof (put_into_mem c s sp (mk e) (mv e) (mdel e) I R ET) as (I1 & R1 & V1 & C1 & T1 & W1).
    destruct (memdb_put fixed_modes c s (mem s) (mk e) (mv e) (mdel e)) as [s1 m1]. cbn [fst snd] in *.
    inversion F as [|? ? Fe Frs]; subst.
    assert (own (hp (set_mem s1 m1)) bl ClientBatch) as O1 by (apply W1; auto).
    assert (Forall (ment_ok (hp (set_mem s1 m1)) bl) rs) as F1.
    { eapply Forall_impl; [|exact Frs]. intros x Hx. apply (bat_ment_ok_grow (hp s) _ bl x (w_bat _ _ W1) O Hx). }
    destruct (IH _ _ bl I1 R1 T1 O1 F1) as (I2 & R2 & V2 & C2 & T2 & W2).
    split; [auto|]. split; [|split; [congruence|split; [congruence|split; [auto|eapply wframe_trans; eauto]]]].
    rewrite (wframe_bat_content s (set_mem s1 m1) bl rs W1 O Frs) in R2.
    unfold sp_base in *. cbn [sbase stxn sbat sits] in *.
    unfold mem_content at 1. cbn [mds map]. fold (mem_content (hp s) {| mkv := bl; mds := rs |}).
    cbn [rev]. rewrite <- app_assoc. cbn [app]. exact R2.
Qed.

(* everything but batch buffers is left alone *)
Definition notbat (o : owner) : bool := negb (owner_eqb o ClientBatch).

Record frameB (s s' : state) : Prop := {
  b_keep : keep notbat (hp s) (hp s');
  b_mem : mem s' = mem s;
  b_frozen : frozen s' = frozen s;
  b_files : files s' = files s;
  b_l0 : l0 s' = l0 s;
  b_deep : deep s' = deep s;
  b_cache : cache s' = cache s;
  b_pool : pool s' = pool s;
  b_wbatch : wbatch s' = wbatch s;
  b_iters : iters s' = iters s;
  b_txn : txn s' = txn s
}.

Lemma frameB_memgrow s s' : frameB s s' -> memgrow (hp s) (hp s').
Proof. intros B. eapply keep_memgrow; [|apply B]. auto. Qed.

Lemma frameB_files_ext s s' : frameB s s' -> files_ext s s'.
Proof. intros B. exists []. rewrite app_nil_r. apply B. Qed.

Lemma inv_frameB c s s' :
  Inv c s -> frameB s s' -> cbatch_ok s' -> (forall r, In r (cvis s') -> own (hp s') (rloc r) Client) -> Inv c s'.
Proof.
  intros I B CB V. pose proof (frameB_memgrow _ _ B) as G.
  constructor; auto.
  - rewrite (b_mem _ _ B). eapply memdb_ok_grow; eauto. apply I.
  - rewrite (b_frozen _ _ B). eapply omemdb_ok_grow; eauto. apply I.
  - rewrite (b_txn _ _ B). eapply omemdb_ok_grow; eauto. apply I.
  - apply (blockinv_frame c s s'); try apply B; try apply I.
    + eapply keep_weaken; [|apply B]. intros [| |[]| |]; simpl; auto; discriminate.
    + apply frameB_files_ext; auto.
  - rewrite (b_wbatch _ _ B). eapply keep_own; [apply B|apply I|auto].
  - apply (iters_ok_frame s s'); auto; try apply B; try apply I.
    + eapply keep_iterbufs; [|apply B]. auto.
    + apply frameB_files_ext; auto.
  - unfold tids_ok, txn_tabs. rewrite (b_l0 _ _ B), (b_deep _ _ B), (b_txn _ _ B), (b_files _ _ B). apply I.
  - rewrite (b_txn _ _ B). intros H. unfold empty_mems. rewrite (b_mem _ _ B), (b_frozen _ _ B). apply I; auto.
Qed.

Lemma rel_frameB c s s' sp b :
  Inv c s -> frameB s s' -> Rel s sp ->
  match cbatch s' with
  | None => b = []
  | Some (bl, recs) => mem_content (hp s') {| mkv := bl; mds := recs |} = b
  end ->
  Rel s' (sp_bat sp b).
Proof.
  intros I B R RB. pose proof (frameB_memgrow _ _ B) as G.
  assert (content s' = content s) as EC.
  { apply content_frame; try apply B; try apply I; auto. apply frameB_files_ext; auto. }
  constructor; unfold sp_bat; cbn [sbase stxn sbat sits].
  - rewrite EC. apply R.
  - apply (rel_txn_frame c s s' sp I R G (b_txn _ _ B) EC).
    intros t _. unfold tabs_content, tab_file_content. rewrite (b_files _ _ B). auto.
  - exact RB.
  - apply (iters_rel_frame s s'); auto; try apply B; try apply I; try apply R.
    + eapply keep_iterbufs; [|apply B]. auto.
    + apply frameB_files_ext; auto.
Qed.

Lemma step_batch_write c s sp :
  Inv c s -> Rel s sp -> txn s = None ->
  Inv c (batch_write fixed_modes c s) /\
  Rel (batch_write fixed_modes c s) {| sbase := sbat sp ++ sbase sp; stxn := stxn sp; sbat := []; sits := sits sp |}.
Proof.
  intros I R ET. unfold batch_write.
  pose proof (i_cbatch _ _ I) as CB. pose proof (r_bat _ _ R) as RB. unfold cbatch_ok in CB.
  destruct (cbatch s) as [[bl recs]|] eqn:EC.
  - destruct CB as [O F].
    assert (Forall (ment_ok (hp s) bl) (rev recs)) as Fr
      by (apply Forall_forall; intros x Hx; apply in_rev in Hx; eapply Forall_forall in F; eauto).
    destruct (put_mem_ok c (rev recs) s sp bl I R ET O Fr) as (I1 & R1 & V1 & C1 & T1 & W1).
    rewrite mem_content_rev, rev_involutive, RB in R1.
    remember (put_mem fixed_modes c s (rev recs)) as s1 eqn:Es1. clear Es1.
    assert (own (hp s1) bl ClientBatch) as O1 by (apply W1; auto).
    cbv zeta.
    set (h2 := hchown (hp s1) bl Client).
    set (s' := set_cbatch (set_cvis (set_hp s1 h2) (whole h2 bl :: cvis (set_hp s1 h2))) None).
    assert (frameB s1 s') as B.
    { constructor; auto. simpl. eapply keep_hchown; eauto. }
    change (Inv c s' /\ Rel s' {| sbase := sbat sp ++ sbase sp; stxn := stxn sp; sbat := []; sits := sits sp |}).
    split.
    + apply (inv_frameB c s1 s' I1 B).
      * unfold cbatch_ok. simpl. auto.
      * simpl. intros r [<-|Hr].
        -- simpl. eapply own_hchown_same; eauto.
        -- eapply own_hchown_diff; [exact O1|apply I1; auto|discriminate].
    + exact (rel_frameB c s1 s' _ [] I1 B R1 eq_refl).
  - split.
    + exact I.
    + destruct R. constructor; cbn [sbase stxn sbat sits]; auto.
      * rewrite RB. auto.
      * rewrite EC. auto.
Qed.

Definition sp_txn (sp : sstate) (t : option amap) : sstate :=
  {| sbase := sbase sp; stxn := t; sbat := sbat sp; sits := sits sp |}.

Lemma step_txn_put c s sp k v del :
  Inv c s -> Rel s sp ->
  Inv c (txn_put fixed_modes c s k v del) /\
  Rel (txn_put fixed_modes c s k v del)
      (match stxn sp with Some ov => sp_txn sp (Some ((k, if del then None else Some v) :: ov)) | None => sp end).
Proof.
  intros I R. unfold txn_put. pose proof (r_txn _ _ R) as T.
  destruct (txn s) as [t|] eqn:ET; destruct (stxn sp) as [ov|] eqn:ES; try contradiction; [|auto].
  destruct (client_buf_ok c s sp k I R) as (I1 & R1 & Q1 & V1 & O1 & D1 & E1).
  pose proof (client_buf_wframe s k) as (W1 & M1 & T1 & C1).
  destruct (client_buf s k) as [s1 kr]. cbn [fst snd] in *.
  generalize (value_buf_ok c s1 sp kr v del I1 R1 O1). cbv zeta.
  destruct (if del then (s1, mkref (rloc kr) 0 0) else client_buf s1 v) as [s2 vr]. cbn [fst snd].
  intros (I2 & R2 & T2 & DK & DV). rewrite T1, ET in T2. rewrite D1 in DK.
  pose proof (i_txn _ _ I2) as MT. rewrite T2 in MT. simpl in MT.
  destruct (memdb_put_ok c s2 (tmem t) kr vr del MT) as (h' & E3 & Eh & Ekv & MO & MC).
  destruct (memdb_put fixed_modes c s2 (tmem t) kr vr del) as [s3 m]. cbn [fst snd] in *. subst s3.
  set (s' := set_txn (set_hp s2 h') (Some {| tmem := m; ttabs := ttabs t |})).
  assert (wframe s2 (set_hp s2 h')) as W0 by (rewrite Eh; apply wframe_happend_mem; apply MT).
  assert (wframe s2 s') as W by (destruct W0; constructor; auto).
  split.
  - apply (inv_wframe c s2 s' I2 W); simpl; auto.
    + eapply memdb_ok_grow; [apply W0|apply I2].
    + unfold txn_tabs. simpl. rewrite T2. auto.
    + apply (wframe_cbatch_ok s2 s' W); auto. apply I2.
    + intros r Hr. apply W0. apply I2; auto.
    + intros _. apply (i_txnq _ _ I2). congruence.
  - pose proof (r_txn _ _ R2) as TT. rewrite T2, ES in TT.
    constructor; unfold sp_txn; cbn [sbase stxn sbat sits].
    + rewrite (wframe_content_same c s2 s'); auto. apply R2.
    + simpl. unfold txn_content. cbn [tmem ttabs]. change (hp s') with h'. rewrite MC.
      rewrite (wframe_content_same c s2 s'), (wframe_tabs_content s2 s') by auto.
      rewrite DK. simpl.
      replace (if del then None else Some (deref (hp s2) vr)) with (if del then None else Some v)
        by (destruct del; auto; rewrite DV; auto).
      apply lookup_eq_cons. exact TT.
    + apply (rel_bat_frame c s2 s' sp I2 R2 (w_bat _ _ W) eq_refl).
    + apply (wframe_iters_rel s2 s'); auto; try apply I2; try apply R2.
Qed.

Definition allo (o : owner) : bool := true.

(* layout changes: the heap only gains cells, the file list only grows; cache, pool, iterators, the
   client's things stay *)
Record frameL (s s' : state) : Prop := {
  l_keep : keep allo (hp s) (hp s');
  l_files : files_ext s s';
  l_cache : cache s' = cache s;
  l_pool : pool s' = pool s;
  l_wbatch : wbatch s' = wbatch s;
  l_iters : iters s' = iters s;
  l_cbatch : cbatch s' = cbatch s;
  l_cvis : cvis s' = cvis s
}.

Lemma files_ext_same s s' : files s' = files s -> files_ext s s'.
Proof. intros E. exists []. rewrite app_nil_r. auto. Qed.

Lemma frameL_memgrow s s' : frameL s s' -> memgrow (hp s) (hp s').
Proof. intros L. eapply keep_memgrow; [|apply L]. auto. Qed.

Lemma frameL_refl s : frameL s s.
Proof. constructor; auto. apply keep_refl. apply files_ext_refl. Qed.

Lemma files_ext_trans s1 s2 s3 : files_ext s1 s2 -> files_ext s2 s3 -> files_ext s1 s3.
Proof. intros [x E1] [y E2]. exists (x ++ y). rewrite E2, E1, app_assoc. auto. Qed.

Lemma frameL_trans s1 s2 s3 : frameL s1 s2 -> frameL s2 s3 -> frameL s1 s3.
Proof.
  intros A B. destruct A, B. constructor; try congruence.
  - eapply keep_trans; eauto.
  - eapply files_ext_trans; eauto.
Qed.

Lemma inv_frameL c s s' :
  Inv c s -> frameL s s' ->
  memdb_ok (hp s') (mem s') -> omemdb_ok (hp s') (frozen s') -> omemdb_ok (hp s') (option_map tmem (txn s')) ->
  tids_ok s' -> (txn s' <> None -> empty_mems s') -> Inv c s'.
Proof.
  intros I L M F T TI Q. pose proof (frameL_memgrow _ _ L) as G.
  constructor; auto.
  - rewrite (l_cvis _ _ L). intros r Hr. eapply keep_own; [apply L|apply I; auto|auto].
  - apply (blockinv_frame c s s'); try apply L; try apply I.
    eapply keep_weaken; [|apply L]. auto.
  - rewrite (l_wbatch _ _ L). eapply keep_own; [apply L|apply I|auto].
  - apply (iters_ok_frame s s'); auto; try apply L; try apply I.
    eapply keep_iterbufs; [|apply L]. auto.
  - eapply cbatch_ok_grow; [|exact (l_cbatch _ _ L)|exact (i_cbatch _ _ I)]. eapply keep_batgrow; [|apply L]. auto.
Qed.

Lemma rel_frameL c s s' sp sp' :
  Inv c s -> frameL s s' -> Rel s sp ->
  lookup_eq (content s') (sbase sp') ->
  match txn s', stxn sp' with
  | None, None => True
  | Some t, Some ov => lookup_eq (txn_content s' t) ov
  | _, _ => False
  end ->
  sbat sp' = sbat sp -> sits sp' = sits sp -> Rel s' sp'.
Proof.
  intros I L R B T EB EI. constructor; auto.
  - rewrite EB. apply (rel_bat_frame c s s' sp I R); [eapply keep_batgrow; [|apply L]; auto|apply L].
  - rewrite EI. apply (iters_rel_frame s s'); auto; try apply L; try apply I; try apply R.
    + apply frameL_memgrow; auto.
    + eapply keep_iterbufs; [|apply L]. auto.
Qed.

Lemma frameL_tabs_content s s' tids :
  frameL s s' -> (forall t, In t tids -> t < length (files s)) -> tabs_content s' tids = tabs_content s tids.
Proof. intros L H. apply tabs_content_ext; auto. apply L. Qed.

Lemma tids_l0deep c s t : Inv c s -> In t (l0 s ++ deep s) -> t < length (files s).
Proof. intros I H. apply (i_tids _ _ I). rewrite app_assoc. apply in_or_app. auto. Qed.

Lemma tids_txn c s t x : Inv c s -> txn s = Some x -> In t (ttabs x) -> t < length (files s).
Proof. intros I E H. apply (i_tids _ _ I). unfold txn_tabs. rewrite E. apply in_or_app. right. apply in_or_app. auto. Qed.

(* the contents of the layers other than the tables, through a layout change that keeps them *)
Lemma frameL_mem_content c s s' m : Inv c s -> frameL s s' -> memdb_ok (hp s) m -> mem_content (hp s') m = mem_content (hp s) m.
Proof. intros I L M. apply mem_content_grow; auto. apply frameL_memgrow; auto. Qed.

Lemma rotate_ok c s sp : Inv c s -> Rel s sp -> Inv c (rotate s) /\ Rel (rotate s) sp /\ frameL s (rotate s) /\
  txn (rotate s) = txn s /\ (frozen s = None -> frozen (rotate s) = Some (mem s) /\ mds (mem (rotate s)) = []) /\
  l0 (rotate s) = l0 s /\ deep (rotate s) = deep s /\ (frozen s <> None -> rotate s = s).
Proof.
  intros I R. unfold rotate. destruct (frozen s) as [fm|] eqn:EF.
  - split; [auto|]. split; [auto|]. split; [apply frameL_refl|]. split; [auto|]. split; [discriminate|]. auto.
  - unfold alloc. cbv beta iota zeta. cbn [fst snd].
    set (h1 := fst (halloc (hp s) [] (DB KMem))).
    set (l := snd (halloc (hp s) [] (DB KMem))).
    set (s' := set_mem (set_frozen (set_hp s h1) (Some (mem (set_hp s h1)))) {| mkv := l; mds := [] |}).
    assert (frameL s s') as L.
    { constructor; auto. apply keep_alloc. apply files_ext_same; auto. }
    pose proof (frameL_memgrow _ _ L) as G.
    assert (Inv c s') as I'.
    { apply (inv_frameL c s s' I L); simpl.
      - split; simpl; auto. apply own_alloc_new.
      - eapply memdb_ok_grow; [exact G|apply I].
      - eapply omemdb_ok_grow; [exact G|apply I].
      - exact (i_tids _ _ I).
      - intros H. destruct (i_txnq _ _ I H) as [E1 E2]. split; simpl; auto. }
    assert (content s' = content s) as EC.
    { unfold content. simpl. rewrite EF. simpl.
      rewrite (mem_content_grow (hp s) h1); auto. apply I. }
    split; [exact I'|]. split; [|split; [exact L|split; [auto|split; [auto|split; [auto|split; [auto|congruence]]]]]].
    apply (rel_frameL c s s' sp sp I L R); auto.
    + rewrite EC. apply R.
    + apply (rel_txn_frame c s s' sp I R G eq_refl EC). reflexivity.
Qed.

Lemma nth_error_snoc {A} (l : list A) x : nth_error (l ++ [x]) (length l) = Some x.
Proof. rewrite nth_error_app2, Nat.sub_diag; auto. Qed.

Lemma tab_file_content_new s s' T : files s' = files s ++ [T] -> tab_file_content s' (length (files s)) = tab_content T.
Proof. intros E. unfold tab_file_content. rewrite E, nth_error_snoc. auto. Qed.

Lemma flush_ok c s sp : Inv c s -> Rel s sp -> Inv c (flush_frozen c s) /\ Rel (flush_frozen c s) sp /\
  frameL s (flush_frozen c s) /\ txn (flush_frozen c s) = txn s /\ frozen (flush_frozen c s) = None /\
  mem (flush_frozen c s) = mem s /\ deep (flush_frozen c s) = deep s.
Proof.
  intros I R. unfold flush_frozen. destruct (frozen s) as [fm|] eqn:EF.
  2:{ split; [auto|]. split; [auto|]. split; [apply frameL_refl|]. auto. }
  unfold add_table. cbv beta iota zeta. cbn [fst snd].
  set (T := build_table (blk c) (mem_content (hp s) fm)).
  set (id := length (files s)).
  set (s' := set_frozen (set_tabs (set_tabs s (files s ++ [T]) (l0 s) (deep s)) (files s ++ [T]) (id :: l0 s) (deep s)) None).
  change (Inv c s' /\ Rel s' sp /\ frameL s s' /\ txn s' = txn s /\ frozen s' = None /\ mem s' = mem s /\ deep s' = deep s).
  assert (frameL s s') as L.
  { constructor; auto. apply keep_refl. exists [T]. auto. }
  assert (tab_file_content s' id = mem_content (hp s) fm) as ET
    by (unfold id; rewrite (tab_file_content_new s s' T); auto; apply build_table_ok).
  assert (Inv c s') as I'.
  { apply (inv_frameL c s s' I L); simpl; try apply I.
    - auto.
    - unfold tids_ok, txn_tabs. simpl. rewrite app_length. simpl.
      intros t [<-|Ht]; [unfold id; lia|]. pose proof (i_tids _ _ I t Ht). lia.
    - intros H. destruct (i_txnq _ _ I H) as [E1 E2]. split; simpl; auto. }
  assert (content s' = content s) as EC.
  { unfold content. change (l0 s') with (id :: l0 s). change (deep s') with (deep s).
    change (frozen s') with (@None memdb). change (mem s') with (mem s). change (hp s') with (hp s).
    rewrite EF. cbn [ocontent app]. unfold tabs_content at 1. cbn [flat_map app].
    fold (tabs_content s' (l0 s ++ deep s)). rewrite ET.
    rewrite (frameL_tabs_content s s'); auto. intros t Ht. eapply tids_l0deep; eauto. }
  split; [exact I'|]. split; [|auto 10].
  apply (rel_frameL c s s' sp sp I L R); auto.
  - rewrite EC. apply R.
  - apply (rel_txn_frame c s s' sp I R (frameL_memgrow _ _ L) eq_refl EC).
    intros t Et. apply (frameL_tabs_content s s'); auto. intros x Hx. eapply tids_txn; eauto.
Qed.

Lemma tab_view_from_eq s tid : cache_ok s -> forall t' bi,
  (forall j fb, nth_error t' j = Some fb -> file_block s tid (bi + j) = Some fb) ->
  tab_view_from s tid t' bi = tab_content t'.
Proof.
  intros [_ C]. induction t' as [|fb t' IH]; intros bi H; simpl; auto.
  unfold tab_content in *. simpl. f_equal.
  - f_equal. unfold blk_view. destruct (cache_lookup (cache s) tid bi) as [l|] eqn:EL; auto.
    apply cache_lookup_in in EL. destruct (C _ _ _ EL) as [_ [fb' [F G]]].
    specialize (H 0 fb eq_refl). rewrite Nat.add_0_r in H. congruence.
  - apply IH. intros j fb' Hj. replace (S bi + j) with (bi + S j) by lia. apply H. auto.
Qed.

Lemma tab_view_eq s tid : cache_ok s -> tab_view s tid = tab_file_content s tid.
Proof.
  intros C. unfold tab_view, tab_file_content. destruct (nth_error (files s) tid) as [t|] eqn:E; auto.
  apply tab_view_from_eq; auto. intros j fb Hj. unfold file_block. rewrite E. auto.
Qed.

Lemma compact_ok c s sp : Inv c s -> Rel s sp -> Inv c (compact c s) /\ Rel (compact c s) sp.
Proof.
  intros I R. unfold compact. destruct (l0 s ++ deep s) as [|t0 ts] eqn:ET; [auto|].
  rewrite <- ET. unfold add_table. cbv beta iota zeta. cbn [fst snd].
  assert (flat_map (tab_view s) (l0 s ++ deep s) = tabs_content s (l0 s ++ deep s)) as EV.
  { unfold tabs_content. apply flat_map_ext. intros a. apply tab_view_eq. apply I. }
  rewrite EV.
  set (es := tabs_content s (l0 s ++ deep s)).
  set (T := build_table (blk c) (drop_tomb (dedupe es))).
  set (id := length (files s)).
  set (s' := set_tabs (set_tabs s (files s ++ [T]) (l0 s) (deep s)) (files s ++ [T]) [] [id]).
  assert (frameL s s') as L.
  { constructor; auto. apply keep_refl. exists [T]. auto. }
  assert (tab_file_content s' id = drop_tomb (dedupe es)) as ETf
    by (unfold id; rewrite (tab_file_content_new s s' T); auto; apply build_table_ok).
  assert (Inv c s') as I'.
  { apply (inv_frameL c s s' I L); simpl; try apply I.
    - unfold tids_ok, txn_tabs. simpl. rewrite app_length. simpl.
      intros t [<-|Ht]; [unfold id; lia|]. pose proof (i_tids _ _ I t) as HT.
      assert (t < length (files s)); [|lia]. apply HT. apply in_or_app. right. apply in_or_app. right. exact Ht. }
  assert (lookup_eq (content s') (content s)) as LC.
  { unfold content. change (l0 s') with (@nil nat). change (deep s') with [id].
    change (frozen s') with (frozen s). change (mem s') with (mem s). change (hp s') with (hp s).
    unfold tabs_content at 1. cbn [app flat_map]. rewrite app_nil_r, ETf.
    apply lookup_eq_app_r. apply lookup_eq_app_r. apply lookup_eq_drop_tomb_dedupe. }
  split; [exact I'|].
  apply (rel_frameL c s s' sp sp I L R); auto.
  - eapply lookup_eq_trans; [exact LC|apply R].
  - change (txn s') with (txn s). pose proof (r_txn _ _ R) as TT.
    destruct (txn s) as [t|] eqn:ETx; destruct (stxn sp); auto.
    unfold txn_content in *. change (hp s') with (hp s).
    rewrite (frameL_tabs_content s s'); auto; [|intros x Hx; eapply tids_txn; eauto].
    eapply lookup_eq_trans; [|exact TT]. apply lookup_eq_app_r. apply lookup_eq_app_r. exact LC.
Qed.

Lemma in_remove_nth {A} n (l : list A) x : In x (remove_nth n l) -> In x l.
Proof.
  revert n. induction l as [|y l IH]; intros [|n]; simpl; auto.
  intros [H|H]; auto. right. eapply IH; eauto.
Qed.

Lemma nodup_remove_nth {A B} (f : A -> B) n (l : list A) : NoDup (map f l) -> NoDup (map f (remove_nth n l)).
Proof.
  revert n. induction l as [|y l IH]; intros [|n] H; simpl; auto; inversion H; subst; auto.
  constructor; auto. intros Hin. apply H2. apply in_map_iff in Hin as [z [E Hz]]. apply in_map_iff. exists z.
  split; auto. eapply in_remove_nth; eauto.
Qed.

Lemma removed_notin {A B} (f : A -> B) n (l : list A) x :
  NoDup (map f l) -> nth_error l n = Some x -> ~ In (f x) (map f (remove_nth n l)).
Proof.
  revert n. induction l as [|y l IH]; intros [|n] H E; simpl in *; try discriminate.
  - injection E as ->. inversion H; auto.
  - inversion H; subst. intros [Hin|Hin].
    + apply H2. rewrite Hin. apply in_map. eapply nth_error_In; eauto.
    + eapply IH; eauto.
Qed.

Lemma evict_ok c s sp n : Inv c s -> Rel s sp -> Inv c (evict c s n) /\ Rel (evict c s n) sp.
Proof.
  intros I R. unfold evict. destruct (nth_error (cache s) n) as [[[tid bi] l]|] eqn:EN; [|auto].
  pose proof (i_block _ _ I) as ([CN CC] & [PN PO] & E1 & E2).
  assert (In (tid, bi, l) (cache s)) as Hin by (eapply nth_error_In; eauto).
  destruct (CC _ _ _ Hin) as [Ol _].
  pose proof (removed_notin snd n (cache s) _ CN EN) as NI. simpl in NI.
  set (s1 := set_cache s (remove_nth n (cache s))).
  assert (forall o', cache_ok (set_hp s1 (hchown (hp s1) l o'))) as CO.
  { intros o'. split; simpl.
    - apply nodup_remove_nth; auto.
    - intros t b l' Hl'. assert (l' <> l) as Nl.
      { intros ->. apply NI. apply in_map_iff. exists (t, b, l). auto. }
      destruct (CC _ _ _ (in_remove_nth _ _ _ Hl')) as [O' [fb [F G]]]. split.
      + apply own_hchown_other; auto.
      + exists fb. split; auto. rewrite hget_hchown. auto. }
  assert (keep nonblock (hp s) (hchown (hp s) l Pool) /\ keep nonblock (hp s) (hchown (hp s) l (DB KBlock))) as [K1 K2]
    by (split; eapply keep_hchown; eauto).
  destruct (pool_on c) eqn:EP.
  - unfold pool_put. rewrite EP.
    set (s' := set_pool (set_hp s1 (hchown (hp s1) l Pool)) (l :: pool s1)).
    assert (quiet s s') as Q by (constructor; auto).
    assert (blockinv c s') as B.
    { split; [|split; [|split]].
      - destruct (CO Pool) as [A1 A2]. split; auto.
      - split; simpl.
        + constructor; auto. intros Hp. pose proof (own_fun _ _ _ _ Ol (PO _ Hp)). discriminate.
        + intros l' [<-|Hl'].
          * eapply own_hchown_same; eauto.
          * eapply own_hchown_diff; eauto. discriminate.
      - simpl. intros H. rewrite (E1 H) in EN. destruct n; discriminate.
      - intros H. congruence. }
    exact (quiet_ok c s s' sp I R Q B eq_refl).
  - set (s' := set_hp s1 (hchown (hp s1) l (DB KBlock))).
    assert (quiet s s') as Q by (constructor; auto).
    assert (blockinv c s') as B.
    { split; [|split; [|split]].
      - apply CO.
      - split; simpl; auto. intros l' Hl'. eapply own_hchown_diff; eauto. discriminate.
      - simpl. intros H. rewrite (E1 H) in EN. destruct n; discriminate.
      - simpl. auto. }
    exact (quiet_ok c s s' sp I R Q B eq_refl).
Qed.

Lemma txn_flush_ok c s sp :
  Inv c s -> Rel s sp -> Inv c (txn_flush c s) /\ Rel (txn_flush c s) sp /\
  l0 (txn_flush c s) = l0 s /\ deep (txn_flush c s) = deep s /\ mem (txn_flush c s) = mem s /\ frozen (txn_flush c s) = frozen s /\
  match txn s with
  | None => txn_flush c s = s
  | Some t => exists t', txn (txn_flush c s) = Some t' /\ mds (tmem t') = []
  end.
Proof.
  intros I R. unfold txn_flush. destruct (txn s) as [t|] eqn:ET; [|auto 10].
  unfold add_table, alloc. cbv beta iota zeta. cbn [fst snd].
  set (T := build_table (blk c) (mem_content (hp s) (tmem t))).
  set (id := length (files s)).
  set (s1 := set_tabs s (files s ++ [T]) (l0 s) (deep s)).
  set (h2 := fst (halloc (hp s1) [] (DB KMem))).
  set (l := snd (halloc (hp s1) [] (DB KMem))).
  set (t' := {| tmem := {| mkv := l; mds := [] |}; ttabs := id :: ttabs t |}).
  set (s' := set_txn (set_hp s1 h2) (Some t')).
  assert (frameL s s') as L.
  { constructor; auto. apply (keep_alloc allo (hp s) [] (DB KMem)). exists [T]. auto. }
  pose proof (frameL_memgrow _ _ L) as G.
  assert (tab_file_content s' id = mem_content (hp s) (tmem t)) as ETf
    by (unfold id; rewrite (tab_file_content_new s s' T); auto; apply build_table_ok).
  pose proof (i_txn _ _ I) as MT. rewrite ET in MT. simpl in MT.
  assert (Inv c s') as I'.
  { apply (inv_frameL c s s' I L); simpl.
    - eapply memdb_ok_grow; [exact G|apply I].
    - eapply omemdb_ok_grow; [exact G|apply I].
    - split; simpl; auto. apply (own_alloc_new (hp s) [] (DB KMem)).
    - unfold tids_ok, txn_tabs. simpl. rewrite app_length. simpl.
      intros x Hx. apply in_app_or in Hx as [Hx|Hx].
      + pose proof (i_tids _ _ I x) as HT. assert (x < length (files s)); [|lia]. apply HT. apply in_or_app; auto.
      + apply in_app_or in Hx as [Hx|Hx].
        * pose proof (i_tids _ _ I x) as HT. assert (x < length (files s)); [|lia]. apply HT.
          apply in_or_app. right. apply in_or_app. auto.
        * destruct Hx as [<-|Hx]; [unfold id; lia|].
          assert (x < length (files s)); [|lia]. eapply tids_txn; eauto.
    - intros _. apply (i_txnq _ _ I). congruence. }
  assert (content s' = content s) as EC.
  { apply content_frame; auto; try apply L; try apply I. }
  split; [exact I'|]. split; [|split; [auto|split; [auto|split; [auto|split; [auto|exists t'; auto]]]]].
  apply (rel_frameL c s s' sp sp I L R); auto.
  - rewrite EC. apply R.
  - change (txn s') with (Some t'). pose proof (r_txn _ _ R) as TT. rewrite ET in TT.
    destruct (stxn sp) as [ov|]; auto.
    eapply lookup_eq_trans; [|exact TT]. unfold txn_content. rewrite EC.
    cbn [tmem ttabs t']. unfold mem_content at 1. cbn [mds map app].
    unfold tabs_content at 1. cbn [flat_map]. fold (tabs_content s' (ttabs t)). rewrite ETf.
    rewrite (frameL_tabs_content s s'); auto; [|intros x Hx; eapply tids_txn; eauto].
    rewrite <- app_assoc. apply lookup_eq_refl.
Qed.

Lemma ocontent_empty h (f : option memdb) : match f with Some m => mds m = [] | None => True end -> ocontent h f = [].
Proof. destruct f as [m|]; simpl; auto. intros E. unfold mem_content. rewrite E. auto. Qed.

Lemma step_txn_open c s sp :
  Inv c s -> Rel s sp ->
  Inv c (txn_open c s) /\
  Rel (txn_open c s) (match stxn sp with Some _ => sp | None => sp_txn sp (Some (sbase sp)) end).
Proof.
  intros I R. unfold txn_open. pose proof (r_txn _ _ R) as T.
  destruct (txn s) as [t|] eqn:ET; destruct (stxn sp) as [ov|] eqn:ES; try contradiction; [auto|].
  destruct (flush_ok c s sp I R) as (Ia & Ra & La & Ta & Fa & Ma & Da).
  destruct (rotate_ok c _ sp Ia Ra) as (Ib & Rb & Lb & Tb & Fb & _).
  destruct (Fb Fa) as [Fb1 Fb2].
  destruct (flush_ok c _ sp Ib Rb) as (Ic & Rc & Lc & Tc & Fc & Mc & Dc).
  remember (flush_frozen c (rotate (flush_frozen c s))) as s1 eqn:Es1. clear Es1.
  assert (txn s1 = None) as ET1 by congruence.
  assert (mds (mem s1) = []) as EM1 by congruence.
  unfold alloc. cbv beta iota zeta. cbn [fst snd].
  set (h2 := fst (halloc (hp s1) [] (DB KMem))).
  set (l := snd (halloc (hp s1) [] (DB KMem))).
  set (t' := {| tmem := {| mkv := l; mds := [] |}; ttabs := [] |}).
  set (s' := set_txn (set_hp s1 h2) (Some t')).
  assert (frameL s1 s') as L.
  { constructor; auto. apply (keep_alloc allo (hp s1) [] (DB KMem)). apply files_ext_same; auto. }
  pose proof (frameL_memgrow _ _ L) as G.
  assert (content s' = content s1) as EC.
  { apply content_frame; auto; try apply L; try apply Ic. }
  split.
  - apply (inv_frameL c s1 s' Ic L); simpl.
    + eapply memdb_ok_grow; [exact G|apply Ic].
    + eapply omemdb_ok_grow; [exact G|apply Ic].
    + split; simpl; auto. apply (own_alloc_new (hp s1) [] (DB KMem)).
    + unfold tids_ok, txn_tabs. simpl. pose proof (i_tids _ _ Ic) as TI. unfold tids_ok, txn_tabs in TI. rewrite ET1 in TI. exact TI.
    + intros _. split; simpl; auto. rewrite Fc. auto.
  - apply (rel_frameL c s1 s' sp _ Ic L Rc); unfold sp_txn; cbn [sbase stxn sbat sits]; auto.
    + rewrite EC. apply Rc.
    + simpl. unfold txn_content. cbn [tmem ttabs t']. unfold mem_content at 1. cbn [mds map app].
      unfold tabs_content at 1. cbn [flat_map app]. rewrite EC. apply Rc.
Qed.

Lemma step_txn_commit c s sp :
  Inv c s -> Rel s sp ->
  Inv c (txn_commit c s) /\
  Rel (txn_commit c s) (match stxn sp with
                        | Some ov => {| sbase := ov; stxn := None; sbat := sbat sp; sits := sits sp |}
                        | None => sp end).
Proof.
  intros I R. unfold txn_commit. pose proof (r_txn _ _ R) as T.
  destruct (txn_flush_ok c s sp I R) as (I1 & R1 & EL & ED & EM & EF & TX).
  destruct (txn s) as [t|] eqn:ET; destruct (stxn sp) as [ov|] eqn:ES; try contradiction.
  2:{ rewrite TX, ET. auto. }
  destruct TX as (t' & ET' & EMt).
  remember (txn_flush c s) as s1 eqn:Es1. clear Es1. rewrite ET'.
  set (s' := set_txn (set_tabs s1 (files s1) (ttabs t' ++ l0 s1) (deep s1)) None).
  assert (frameL s1 s') as L.
  { constructor; auto. apply keep_refl. apply files_ext_same; auto. }
  assert (txn s1 <> None) as NT by congruence.
  destruct (i_txnq _ _ I1 NT) as [EM1 EF1].
  split.
  - apply (inv_frameL c s1 s' I1 L); simpl.
    + apply I1.
    + apply I1.
    + auto.
    + unfold tids_ok, txn_tabs. simpl. rewrite app_nil_r. intros x Hx.
      apply in_app_or in Hx as [Hx|Hx].
      * apply in_app_or in Hx as [Hx|Hx].
        -- eapply tids_txn; eauto.
        -- eapply tids_l0deep; eauto. apply in_or_app; auto.
      * eapply tids_l0deep; eauto. apply in_or_app; auto.
    + congruence.
  - pose proof (r_txn _ _ R1) as TT. rewrite ET', ES in TT.
    apply (rel_frameL c s1 s' sp _ I1 L R1); cbn [sbase stxn sbat sits]; auto.
    + eapply lookup_eq_trans; [|exact TT].
      unfold txn_content, content. change (hp s') with (hp s1). change (mem s') with (mem s1).
      change (frozen s') with (frozen s1). change (l0 s') with (ttabs t' ++ l0 s1). change (deep s') with (deep s1).
      assert (mem_content (hp s1) (mem s1) = []) as -> by (unfold mem_content; rewrite EM1; auto).
      assert (mem_content (hp s1) (tmem t') = []) as -> by (unfold mem_content; rewrite EMt; auto).
      rewrite (ocontent_empty (hp s1) (frozen s1) EF1). cbn [app].
      change (tabs_content s' ((ttabs t' ++ l0 s1) ++ deep s1)) with (tabs_content s1 ((ttabs t' ++ l0 s1) ++ deep s1)).
      rewrite <- app_assoc, tabs_content_app. apply lookup_eq_refl.
    + simpl. auto.
Qed.

Lemma step_txn_discard c s sp :
  Inv c s -> Rel s sp -> Inv c (set_txn s None) /\ Rel (set_txn s None) (sp_txn sp None).
Proof.
  intros I R.
  assert (frameL s (set_txn s None)) as L.
  { constructor; auto. apply keep_refl. apply files_ext_same; auto. }
  split.
  - apply (inv_frameL c s _ I L); simpl.
    + apply I.
    + apply I.
    + auto.
    + unfold tids_ok, txn_tabs. simpl. rewrite app_nil_r. intros x Hx. eapply tids_l0deep; eauto.
    + congruence.
  - apply (rel_frameL c s _ sp _ I L R); unfold sp_txn; cbn [sbase stxn sbat sits]; auto.
    + apply R.
    + simpl. auto.
Qed.

Definition sp_its (sp : sstate) (l : list siter) : sstate :=
  {| sbase := sbase sp; stxn := stxn sp; sbat := sbat sp; sits := l |}.

Lemma inv_set_iters c s its : Inv c s -> iters_ok (set_iters s its) -> Inv c (set_iters s its).
Proof. intros I IO. destruct I. constructor; auto. Qed.

Lemma rel_set_iters s sp its sl :
  Rel s sp -> Forall2 (iter_rel (set_iters s its)) its sl -> Rel (set_iters s its) (sp_its sp sl).
Proof. intros R F. destruct R. constructor; auto. Qed.

Lemma pmap_app {A B} (f : A -> B) (a b : list (bytes * A)) : pmap f (a ++ b) = pmap f a ++ pmap f b.
Proof. unfold pmap. apply map_app. Qed.

Lemma mem_srcs_content s m : pmap (option_map (src_val s)) (mem_srcs (hp s) m) = mem_content (hp s) m.
Proof.
  unfold pmap, mem_srcs, mem_content. rewrite map_map. apply map_ext. intros e. simpl.
  destruct (mdel e); auto.
Qed.

Lemma tab_srcs_from_content s tid : cache_ok s -> forall t' bi,
  (forall j fb, nth_error t' j = Some fb -> file_block s tid (bi + j) = Some fb) ->
  pmap (option_map (src_val s)) (tab_srcs_from s tid t' bi) = tab_content t'.
Proof.
  intros [_ C]. induction t' as [|fb t' IH]; intros bi H; simpl; auto.
  unfold tab_content in *. simpl. rewrite pmap_app. f_equal.
  - assert (file_block s tid bi = Some fb) as FB by (specialize (H 0 fb eq_refl); rewrite Nat.add_0_r in H; auto).
    assert (blk_view s tid bi fb = fimg fb) as EV.
    { unfold blk_view. destruct (cache_lookup (cache s) tid bi) as [l|] eqn:EL; auto.
      apply cache_lookup_in in EL. destruct (C _ _ _ EL) as [_ [fb' [F G]]]. congruence. }
    unfold pmap, resolve. rewrite map_map. apply map_ext. intros d. simpl. rewrite EV. f_equal.
    unfold dval. destruct (isdel d); simpl; auto. rewrite FB. auto.
  - apply IH. intros j fb' Hj. replace (S bi + j) with (bi + S j) by lia. apply H. auto.
Qed.

Lemma tab_srcs_content s tid : cache_ok s -> pmap (option_map (src_val s)) (tab_srcs s tid) = tab_file_content s tid.
Proof.
  intros C. unfold tab_srcs, tab_file_content. destruct (nth_error (files s) tid) as [t|] eqn:E; auto.
  apply tab_srcs_from_content; auto. intros j fb Hj. unfold file_block. rewrite E. auto.
Qed.

Lemma all_srcs_content c s : Inv c s -> pmap (option_map (src_val s)) (all_srcs s) = content s.
Proof.
  intros I. unfold all_srcs, content. rewrite !pmap_app. f_equal; [apply mem_srcs_content|]. f_equal.
  - destruct (frozen s); simpl; auto. apply mem_srcs_content.
  - unfold tabs_content. induction (l0 s ++ deep s) as [|t ts IH]; simpl; auto.
    rewrite pmap_app, IH. f_equal. apply tab_srcs_content. apply I.
Qed.

(* every source of the live layers is well-formed and carries its key *)
Definition src_good (s : state) (x : bytes * option src) : Prop :=
  match snd x with Some y => src_ok s y /\ src_key s y = fst x | None => True end.

Lemma mem_srcs_good s m : memdb_ok (hp s) m -> Forall (src_good s) (mem_srcs (hp s) m).
Proof.
  intros [O F]. unfold mem_srcs. apply Forall_forall. intros x Hx. apply in_map_iff in Hx as [e [<- He]].
  unfold src_good. simpl. destruct (mdel e); auto. eapply Forall_forall in F; eauto.
  destruct F as (E1 & E2 & R1 & R2). simpl. split; auto. split; [rewrite E1; auto|]. repeat split; auto. congruence.
Qed.

Lemma tab_srcs_from_good s tid : cache_ok s -> forall t' bi,
  (forall j fb, nth_error t' j = Some fb -> file_block s tid (bi + j) = Some fb) ->
  Forall (src_good s) (tab_srcs_from s tid t' bi).
Proof.
  intros [_ C]. induction t' as [|fb t' IH]; intros bi H; simpl; auto.
  apply Forall_app. split.
  - assert (file_block s tid bi = Some fb) as FB by (specialize (H 0 fb eq_refl); rewrite Nat.add_0_r in H; auto).
    assert (blk_view s tid bi fb = fimg fb) as EV.
    { unfold blk_view. destruct (cache_lookup (cache s) tid bi) as [l|] eqn:EL; auto.
      apply cache_lookup_in in EL. destruct (C _ _ _ EL) as [_ [fb' [F G]]]. congruence. }
    apply Forall_forall. intros x Hx. apply in_map_iff in Hx as [d [<- Hd]].
    unfold src_good. simpl. destruct (isdel d); auto. simpl. rewrite FB, EV. split; eauto.
  - apply IH. intros j fb' Hj. replace (S bi + j) with (bi + S j) by lia. apply H. auto.
Qed.

Lemma all_srcs_good c s : Inv c s -> Forall (src_good s) (all_srcs s).
Proof.
  intros I. unfold all_srcs. apply Forall_app. split; [apply mem_srcs_good; apply I|]. apply Forall_app. split.
  - pose proof (i_frozen _ _ I) as F. destruct (frozen s); simpl; auto. apply mem_srcs_good; auto.
  - induction (l0 s ++ deep s) as [|t ts IH]; simpl; auto. apply Forall_app. split; auto.
    unfold tab_srcs. destruct (nth_error (files s) t) as [tb|] eqn:E; auto.
    apply tab_srcs_from_good; [apply I|]. intros j fb Hj. unfold file_block. rewrite E. auto.
Qed.

Lemma iter_bufs_app a b : iter_bufs (a ++ b) = iter_bufs a ++ iter_bufs b.
Proof. unfold iter_bufs. apply flat_map_app. Qed.

Lemma iter_bufs_lt s l : Forall (iter_ok s) (iters s) -> In l (iter_bufs (iters s)) -> l < length (hp s).
Proof.
  intros F H. unfold iter_bufs in H. apply in_flat_map in H as [it [Hit Hl]].
  eapply Forall_forall in F; eauto. destruct F as (O1 & O2 & _).
  destruct Hl as [<-|[<-|[]]]; eapply own_lt; eauto.
Qed.

Lemma step_iter_new c s sp :
  Inv c s -> Rel s sp ->
  Inv c (new_iter s) /\
  Rel (new_iter s) (sp_its sp (sits sp ++ [{| slist := canon (sbase sp); spos := None; slive := true |}])).
Proof.
  intros I R. unfold new_iter, alloc. cbv beta iota zeta. cbn [fst snd].
  set (h1 := fst (halloc (hp s) [] (DB KIter))).
  set (kb := snd (halloc (hp s) [] (DB KIter))).
  set (h2 := fst (halloc h1 [] (DB KIter))).
  set (vb := snd (halloc h1 [] (DB KIter))).
  assert (kb = length (hp s)) as Ekb by reflexivity.
  assert (vb = S (length (hp s))) as Evb by (unfold vb, halloc; simpl; unfold h1; rewrite halloc_length; auto).
  set (srcs := canon (all_srcs s)).
  set (it := {| ikbuf := kb; ivbuf := vb; iexk := mkref kb 0 0; iexv := mkref vb 0 0; isrcs := srcs; ipos := None; ilive := true |}).
  set (s1 := set_hp (set_hp s h1) h2).
  assert (frameL s s1) as L.
  { constructor; auto; [|apply files_ext_same; auto]. simpl.
    eapply keep_trans; [apply (keep_alloc allo (hp s) [] (DB KIter))|apply (keep_alloc allo h1 [] (DB KIter))]. }
  pose proof (frameL_memgrow _ _ L) as G.
  assert (Inv c s1) as I1.
  { apply (inv_frameL c s s1 I L); simpl.
    - eapply memdb_ok_grow; [exact G|apply I].
    - eapply omemdb_ok_grow; [exact G|apply I].
    - eapply omemdb_ok_grow; [exact G|apply I].
    - exact (i_tids _ _ I).
    - exact (i_txnq _ _ I). }
  assert (content s1 = content s) as EC by (apply content_frame; auto; try apply L; try apply I).
  assert (Rel s1 sp) as R1.
  { apply (rel_frameL c s s1 sp sp I L R); auto.
    - rewrite EC. apply R.
    - apply (rel_txn_frame c s s1 sp I R G eq_refl EC). reflexivity. }
  assert (own h2 kb (DB KIter)) as Ok.
  { unfold h2. apply own_alloc_old. unfold h1. rewrite Ekb. apply own_alloc_new. }
  assert (own h2 vb (DB KIter)) as Ov.
  { unfold h2, vb. apply (own_alloc_new h1 [] (DB KIter)). }
  pose proof (all_srcs_good c s I) as GS.
  assert (forall k x, In (k, x) srcs -> src_ok s x /\ src_key s x = k) as SG.
  { intros k x Hx. apply in_canon in Hx. eapply Forall_forall in GS; eauto. exact GS. }
  assert (files_ext s s1) as FE by (apply files_ext_same; auto).
  assert (iter_ok s1 it) as IO.
  { unfold iter_ok. cbn [ikbuf ivbuf iexk iexv isrcs it mkref rloc]. split; [exact Ok|]. split; [exact Ov|]. split; [auto|]. split; [auto|].
    apply Forall_forall. intros [k x] Hx. simpl. destruct (SG _ _ Hx) as [SO _]. eapply src_ok_frame; eauto. }
  assert (iter_rel s1 it {| slist := canon (sbase sp); spos := None; slive := true |}) as IR.
  { unfold iter_rel. cbn [ilive ipos isrcs iexk iexv it slive spos slist].
    split; [auto|]. split; [auto|]. split; [|split].
    - assert (pmap (src_val s1) srcs = pmap (src_val s) srcs) as ->.
      { apply pmap_ext. intros [k x] Hx. simpl. destruct (SG _ _ Hx) as [SO _]. eapply src_val_frame; eauto. }
      unfold srcs. rewrite <- canon_pmap, (all_srcs_content c s I). apply canon_lookup_eq. apply R.
    - apply Forall_forall. intros [k x] Hx. simpl. destruct (SG _ _ Hx) as [SO SK].
      rewrite (src_key_frame s s1); auto.
    - intros p k v Hp. discriminate. }
  set (its' := iters s1 ++ [it]).
  change (Inv c (set_iters s1 its') /\
          Rel (set_iters s1 its') (sp_its sp (sits sp ++ [{| slist := canon (sbase sp); spos := None; slive := true |}]))).
  split.
  - apply inv_set_iters; auto. split; simpl.
    + unfold its'. apply Forall_app. split; [apply (i_iters _ _ I1)|]. constructor; auto.
    + unfold its'. rewrite iter_bufs_app. simpl.
      assert (forall l, In l (iter_bufs (iters s1)) -> l < length (hp s)) as LT.
      { intros l Hl. apply (iter_bufs_lt s); auto. apply (i_iters _ _ I). }
      apply ListLemmas.NoDup_app_intro.
      * apply (i_iters _ _ I1).
      * constructor; [|constructor; [|constructor]]; simpl; auto. intros [E|[]]. lia.
      * intros l Hl [E|[E|[]]]; subst l; apply LT in Hl; lia.
  - apply rel_set_iters; auto. unfold its'. apply Forall2_app; [apply R1|]. constructor; auto.
Qed.

(* moving an iterator: only its two buffers change *)

Definition notiter (o : owner) : bool := negb (owner_eqb o (DB KIter)).

Record frameI (s s' : state) (kbuf vbuf : loc) : Prop := {
  fi_len : length (hp s') = length (hp s);
  fi_other : forall l, l <> kbuf -> l <> vbuf -> nth_error (hp s') l = nth_error (hp s) l;
  fi_own : forall l o, own (hp s) l o -> own (hp s') l o;
  fi_mem : mem s' = mem s;
  fi_frozen : frozen s' = frozen s;
  fi_files : files s' = files s;
  fi_l0 : l0 s' = l0 s;
  fi_deep : deep s' = deep s;
  fi_cache : cache s' = cache s;
  fi_pool : pool s' = pool s;
  fi_wbatch : wbatch s' = wbatch s;
  fi_txn : txn s' = txn s;
  fi_cbatch : cbatch s' = cbatch s;
  fi_cvis : cvis s' = cvis s
}.

Lemma frameI_keep s s' kb vb :
  frameI s s' kb vb -> own (hp s) kb (DB KIter) -> own (hp s) vb (DB KIter) -> keep notiter (hp s) (hp s').
Proof.
  intros F Ok Ov. split; [rewrite (fi_len _ _ _ _ F); lia|].
  intros l c0 H HP. rewrite (fi_other _ _ _ _ F); auto.
  - intros ->. unfold own, hown in Ok. rewrite H in Ok. injection Ok as E. rewrite E in HP. discriminate.
  - intros ->. unfold own, hown in Ov. rewrite H in Ov. injection Ov as E. rewrite E in HP. discriminate.
Qed.

Lemma Forall2_impl_nth {A B} (R0 R : A -> B -> Prop) l1 l2 :
  Forall2 R0 l1 l2 ->
  (forall j a b, nth_error l1 j = Some a -> nth_error l2 j = Some b -> R0 a b -> R a b) ->
  Forall2 R l1 l2.
Proof.
  intros F. induction F as [|a b l1 l2 Hab F IH]; intros H; constructor.
  - apply (H 0); auto.
  - apply IH. intros j a0 b0 H1 H2 H3. apply (H (S j)); auto.
Qed.

Lemma Forall2_replace_nth_gen {A B} (R0 R : A -> B -> Prop) : forall l1 l2 i x y,
  Forall2 R0 l1 l2 ->
  (forall j a b, j <> i -> nth_error l1 j = Some a -> nth_error l2 j = Some b -> R0 a b -> R a b) ->
  R x y -> Forall2 R (replace_nth i l1 x) (replace_nth i l2 y).
Proof.
  intros l1 l2 i x y F. revert i. induction F as [|a b l1 l2 Hab F IH]; intros [|i] H Hxy; simpl; constructor; auto.
  - apply (Forall2_impl_nth R0 R); auto. intros j a0 b0 H1 H2 H3. apply (H (S j)); auto.
  - apply (H 0); auto.
  - apply IH; auto. intros j a0 b0 Nj H1 H2 H3. apply (H (S j)); auto.
Qed.

Lemma Forall_replace_nth_gen {A} (P0 P : A -> Prop) : forall l i x,
  Forall P0 l -> (forall j a, j <> i -> nth_error l j = Some a -> P0 a -> P a) -> P x -> Forall P (replace_nth i l x).
Proof.
  induction l as [|a l IH]; intros [|i] x F H Hx; simpl; auto; inversion F; subst; constructor; auto.
  - apply Forall_forall. intros y Hy. apply In_nth_error in Hy as [j Hj].
    apply (H (S j)); auto. eapply Forall_forall in H3; eauto. eapply nth_error_In; eauto.
  - apply (H 0); auto.
  - apply IH; auto. intros j a0 Nj H1 H4. apply (H (S j)); auto.
Qed.

Lemma iter_update_ok c s s' sp i it it' si p :
  Inv c s -> Rel s sp -> nth_error (iters s) i = Some it -> nth_error (sits sp) i = Some si -> slive si = true ->
  frameI s s' (ikbuf it) (ivbuf it) -> iters s' = replace_nth i (iters s) it' ->
  ikbuf it' = ikbuf it -> ivbuf it' = ivbuf it -> isrcs it' = isrcs it -> ilive it' = ilive it -> ipos it' = Some p ->
  rloc (iexk it') = ikbuf it -> rloc (iexv it') = ivbuf it ->
  (forall k v, nth_error (slist si) p = Some (k, v) -> deref (hp s') (iexk it') = k /\ deref (hp s') (iexv it') = v) ->
  Inv c s' /\ Rel s' (sp_its sp (replace_nth i (sits sp) {| slist := slist si; spos := Some p; slive := true |})).
Proof.
  intros I R Hi Hs LV FI EI Ek Ev Es El Ep Rk Rv EX.
  destruct (i_iters _ _ I) as [IO ND].
  assert (iter_ok s it) as IOi by (eapply Forall_forall in IO; eauto; eapply nth_error_In; eauto).
  destruct IOi as (Ok & Ov & E1 & E2 & FS).
  pose proof (frameI_keep _ _ _ _ FI Ok Ov) as K.
  assert (memgrow (hp s) (hp s')) as G by (eapply keep_memgrow; [|exact K]; auto).
  assert (files_ext s s') as FE by (apply files_ext_same; apply FI).
  (* the other iterators keep their buffers *)
  assert (forall j a, j <> i -> nth_error (iters s) j = Some a -> bufs_kept s s' a) as BK.
  { intros j a Nj Ha.
    assert (iter_ok s a) as IOa by (eapply Forall_forall in IO; eauto; eapply nth_error_In; eauto).
    destruct IOa as (Oka & Ova & _).
    assert (forall x, In x [ikbuf a; ivbuf a] -> x <> ikbuf it /\ x <> ivbuf it) as D.
    { intros x Hx. split; intros ->.
      - eapply (flat_map_disj (fun t => [ikbuf t; ivbuf t]) (iters s) j i a it); eauto. simpl; auto.
      - eapply (flat_map_disj (fun t => [ikbuf t; ivbuf t]) (iters s) j i a it); eauto. simpl; auto. }
    destruct (D (ikbuf a) ltac:(simpl; auto)) as [D1 D2]. destruct (D (ivbuf a) ltac:(simpl; auto)) as [D3 D4].
    split; split; try (apply FI; auto); unfold hget; rewrite (fi_other _ _ _ _ FI); auto. }
  split.
  - constructor.
    + rewrite (fi_cvis _ _ _ _ FI). intros r Hr. apply FI. apply I; auto.
    + rewrite (fi_mem _ _ _ _ FI). eapply memdb_ok_grow; eauto. apply I.
    + rewrite (fi_frozen _ _ _ _ FI). eapply omemdb_ok_grow; eauto. apply I.
    + rewrite (fi_txn _ _ _ _ FI). eapply omemdb_ok_grow; eauto. apply I.
    + apply (blockinv_frame c s s'); try apply FI; try apply I; auto.
      eapply keep_weaken; [|exact K]. intros [| |[]| |]; simpl; auto; discriminate.
    + rewrite (fi_wbatch _ _ _ _ FI). apply FI. apply I.
    + split; rewrite EI.
      * apply (Forall_replace_nth_gen (iter_ok s) (iter_ok s')); auto.
        -- intros j a Nj Ha IOa. eapply iter_ok_frame1; eauto.
        -- unfold iter_ok. rewrite Ek, Ev, Es. repeat split; auto; try (apply FI; auto).
           eapply Forall_impl; [|exact FS]. intros x Hx. eapply src_ok_frame; eauto.
      * rewrite (iter_bufs_replace i (iters s) it it'); auto.
    + unfold tids_ok, txn_tabs. rewrite (fi_l0 _ _ _ _ FI), (fi_deep _ _ _ _ FI), (fi_txn _ _ _ _ FI), (fi_files _ _ _ _ FI). apply I.
    + eapply cbatch_ok_grow; [|exact (fi_cbatch _ _ _ _ FI)|exact (i_cbatch _ _ I)]. eapply keep_batgrow; [|exact K]. auto.
    + rewrite (fi_txn _ _ _ _ FI). intros H. unfold empty_mems. rewrite (fi_mem _ _ _ _ FI), (fi_frozen _ _ _ _ FI). apply I; auto.
  - assert (content s' = content s) as EC by (apply content_frame; auto; try apply FI; try apply I).
    constructor; unfold sp_its; cbn [sbase stxn sbat sits].
    + rewrite EC. apply R.
    + apply (rel_txn_frame c s s' sp I R G (fi_txn _ _ _ _ FI) EC).
      intros t _. unfold tabs_content, tab_file_content. rewrite (fi_files _ _ _ _ FI). auto.
    + apply (rel_bat_frame c s s' sp I R); [eapply keep_batgrow; [|exact K]; auto|apply FI].
    + rewrite EI. apply (Forall2_replace_nth_gen (iter_rel s) (iter_rel s')); [apply R| |].
      * intros j a b Nj Ha Hb Rab. eapply iter_rel_frame1; eauto.
        eapply Forall_forall in IO; eauto. eapply nth_error_In; eauto.
      * destruct (Forall2_nth _ _ _ _ _ (r_its _ _ R) Hi) as [si' [Hs' (L1 & P1 & S1 & K1 & X1)]].
        assert (si' = si) by congruence. subst si'.
        unfold iter_rel. cbn [slive spos slist]. rewrite El, Ep, Es.
        split; [congruence|]. split; [auto|]. split; [|split].
        -- rewrite <- S1. apply pmap_ext. intros x Hx. eapply Forall_forall in FS; eauto. eapply src_val_frame; eauto.
        -- apply Forall_forall. intros x Hx. rewrite src_key_frame with (s := s); auto.
           ++ eapply Forall_forall in K1; eauto.
           ++ eapply Forall_forall in FS; eauto.
        -- intros p0 k v Hp Hn. injection Hp as <-. apply EX; auto.
Qed.

Lemma nth_error_pmap {A B} (f : A -> B) (l : list (bytes * A)) p :
  nth_error (pmap f l) p = option_map (fun x => (fst x, f (snd x))) (nth_error l p).
Proof. unfold pmap. apply nth_error_map. Qed.

Lemma release_set_iters c s l cached its :
  set_iters (release_block c s l cached) its = release_block c (set_iters s its) l cached.
Proof. unfold release_block, pool_put. destruct cached; auto. destruct (pool_on c); auto. Qed.

Lemma iters_release c s l cached : iters (release_block c s l cached) = iters s.
Proof. unfold release_block, pool_put. destruct cached; auto. destruct (pool_on c); auto. Qed.

(* the heap after dbIter copied key and value into its buffers *)
Lemma expose_eq c s it kr vr p :
  expose fixed_modes c s it kr vr p =
  (set_hp s (hset (hset (hp s) (ikbuf it) (deref (hp s) kr)) (ivbuf it) (deref (hp s) vr)),
   {| ikbuf := ikbuf it; ivbuf := ivbuf it;
      iexk := mkref (ikbuf it) 0 (length (deref (hp s) kr)); iexv := mkref (ivbuf it) 0 (length (deref (hp s) vr));
      isrcs := isrcs it; ipos := Some p; ilive := ilive it |}).
Proof. reflexivity. Qed.

Lemma expose_update_ok c s sp i it si kr vr p :
  Inv c s -> Rel s sp -> nth_error (iters s) i = Some it -> nth_error (sits sp) i = Some si -> slive si = true ->
  (forall k v, nth_error (slist si) p = Some (k, v) -> deref (hp s) kr = k /\ deref (hp s) vr = v) ->
  let x := expose fixed_modes c s it kr vr p in
  let s' := set_iters (fst x) (replace_nth i (iters (fst x)) (snd x)) in
  Inv c s' /\ Rel s' (sp_its sp (replace_nth i (sits sp) {| slist := slist si; spos := Some p; slive := true |})) /\
  frameI s s' (ikbuf it) (ivbuf it).
Proof.
  intros I R Hi Hs LV EX. rewrite expose_eq. cbv zeta. cbn [fst snd].
  destruct (i_iters _ _ I) as [IO ND].
  assert (iter_ok s it) as IOi by (eapply Forall_forall in IO; eauto; eapply nth_error_In; eauto).
  destruct IOi as (Ok & Ov & E1 & E2 & FS).
  assert (ikbuf it <> ivbuf it) as NKV.
  { pose proof (flat_map_nodup_elem (fun t => [ikbuf t; ivbuf t]) (iters s) i it ND Hi) as N2.
    inversion N2; subst. intros E. apply H1. rewrite E. simpl; auto. }
  set (kb := deref (hp s) kr). set (vb := deref (hp s) vr).
  set (h2 := hset (hset (hp s) (ikbuf it) kb) (ivbuf it) vb).
  set (it' := {| ikbuf := ikbuf it; ivbuf := ivbuf it; iexk := mkref (ikbuf it) 0 (length kb);
                 iexv := mkref (ivbuf it) 0 (length vb); isrcs := isrcs it; ipos := Some p; ilive := ilive it |}).
  set (s' := set_iters (set_hp s h2) (replace_nth i (iters (set_hp s h2)) it')).
  assert (frameI s s' (ikbuf it) (ivbuf it)) as FI.
  { constructor; auto.
    - simpl. unfold h2. rewrite !hset_length. auto.
    - intros l N1 N2. simpl. unfold h2, hset. rewrite !hupd_other; auto.
    - intros l o H. simpl. unfold h2. apply own_hset. apply own_hset. auto. }
  assert (hget h2 (ikbuf it) = kb) as GK.
  { unfold h2. rewrite hget_hset_other; auto. apply hget_hset_same. eapply own_lt; eauto. }
  assert (hget h2 (ivbuf it) = vb) as GV.
  { unfold h2. apply hget_hset_same. rewrite hset_length. eapply own_lt; eauto. }
  split; [|split; [|exact FI]];
  apply (iter_update_ok c s s' sp i it it' si p I R Hi Hs LV FI); auto;
  intros k v Hn; destruct (EX _ _ Hn) as [<- <-];
  (split; unfold deref; cbn [it' iexk iexv mkref rloc roff rlen]; change (hp s') with h2;
   [rewrite GK|rewrite GV]; apply sub_all).
Qed.

Lemma iter_load_ok c s sp i it si p :
  Inv c s -> Rel s sp -> nth_error (iters s) i = Some it -> nth_error (sits sp) i = Some si -> slive si = true ->
  let x := iter_load fixed_modes c s it p in
  let s' := set_iters (fst x) (replace_nth i (iters (fst x)) (snd x)) in
  Inv c s' /\ Rel s' (sp_its sp (replace_nth i (sits sp) {| slist := slist si; spos := Some p; slive := true |})).
Proof.
  intros I R Hi Hs LV. cbv zeta.
  destruct (i_iters _ _ I) as [IO ND].
  assert (iter_ok s it) as IOi by (eapply Forall_forall in IO; eauto; eapply nth_error_In; eauto).
  destruct IOi as (Ok & Ov & E1 & E2 & FS).
  destruct (Forall2_nth _ _ _ _ _ (r_its _ _ R) Hi) as [si' [Hs' (L1 & P1 & S1 & K1 & X1)]].
  assert (si' = si) by congruence. subst si'.
  unfold iter_load. destruct (nth_error (isrcs it) p) as [[k0 sr]|] eqn:EN.
  2:{ (* past the end: only the position changes *)
    cbn [fst snd].
    set (it' := set_pos it (Some p)).
    set (s' := set_iters s (replace_nth i (iters s) it')).
    assert (frameI s s' (ikbuf it) (ivbuf it)) as FI by (constructor; auto).
    apply (iter_update_ok c s s' sp i it it' si p I R Hi Hs LV FI); auto.
    intros k v Hn. rewrite <- S1, nth_error_pmap, EN in Hn. discriminate. }
  assert (src_ok s sr /\ src_key s sr = k0) as [SO SK].
  { split.
    - eapply Forall_forall in FS; [|eapply nth_error_In; eauto]. exact FS.
    - eapply Forall_forall in K1; [|eapply nth_error_In; eauto]. exact K1. }
  assert (forall k v, nth_error (slist si) p = Some (k, v) -> k = k0 /\ v = src_val s sr) as SL.
  { intros k v Hn. rewrite <- S1, nth_error_pmap, EN in Hn. simpl in Hn. injection Hn as <- <-. auto. }
  destruct sr as [e|tid bi d].
  - (* entry of a write buffer the iterator holds *)
    pose proof (expose_update_ok c s sp i it si (mk e) (mv e) p I R Hi Hs LV) as H.
    cbv zeta in H. destruct H as (A & B & _); auto.
    intros k v Hn. destruct (SL _ _ Hn) as [-> ->]. simpl in *. auto.
  - (* entry of a table block *)
    simpl in SO. destruct SO as [fb FB]. rewrite FB.
    destruct (load_block c s tid bi fb) as [[s1 l] cached] eqn:EL.
    destruct (load_block_ok _ _ _ _ _ _ _ _ (i_block _ _ I) FB EL) as (Q1 & B1 & V1 & G1 & O1).
    destruct (quiet_ok c s s1 sp I R Q1 B1 V1) as [I1 R1].
    assert (nth_error (iters s1) i = Some it) as Hi1 by (rewrite (q_iters _ _ Q1); auto).
    simpl in SK. rewrite FB in SK.
    pose proof (expose_update_ok c s1 sp i it si (mkref l (koff d) (klen d)) (mkref l (voff d) (vlen d)) p I1 R1 Hi1 Hs LV) as H.
    cbv zeta in H.
    destruct (expose fixed_modes c s1 it (mkref l (koff d) (klen d)) (mkref l (voff d) (vlen d)) p) as [s2 it'] eqn:EE.
    cbn [fst snd] in *.
    destruct H as (I2 & R2 & FI2).
    { intros k v Hn. destruct (SL _ _ Hn) as [-> ->]. simpl. rewrite FB.
      unfold deref; cbn [mkref rloc roff rlen]. rewrite G1. unfold dkey in SK. auto. }
    rewrite iters_release, release_set_iters.
    set (s2' := set_iters s2 (replace_nth i (iters s2) it')) in *.
    assert (if cached then True else own (hp s2') l (DB KBlock)) as O2.
    { destruct cached; auto. apply FI2. tauto. }
    destruct (release_block_ok c s2' l cached (i_block _ _ I2) O2) as (Q3 & B3 & V3 & K3).
    exact (quiet_ok c s2' _ _ I2 R2 Q3 B3 V3).
Qed.

Lemma pmap_length {A B} (f : A -> B) (l : list (bytes * A)) : length (pmap f l) = length l.
Proof. unfold pmap. apply map_length. Qed.

Lemma step_iter_next c s sp i :
  Inv c s -> Rel s sp -> step_good c s sp (step fixed_modes c s (OIterNext i)) (sstep sp (OIterNext i)).
Proof.
  intros I R. cbn [step sstep].
  destruct (nth_error (iters s) i) as [it|] eqn:Hi.
  2:{ rewrite (Forall2_nth_none _ _ _ _ (r_its _ _ R) Hi). split; [|split]; auto. }
  destruct (Forall2_nth _ _ _ _ _ (r_its _ _ R) Hi) as [si [Hs (L1 & P1 & S1 & K1 & X1)]].
  rewrite Hs, <- L1, <- P1.
  destruct (ilive it) eqn:EL; [|split; [|split]; auto].
  set (p := match ipos it with Some n => S n | None => 0 end).
  pose proof (iter_load_ok c s sp i it si p I R Hi Hs (eq_sym L1)) as H. cbv zeta in H.
  destruct (iter_load fixed_modes c s it p) as [s1 it'] eqn:EE. cbn [fst snd] in *.
  destruct H as [I' R'].
  split; [exact I'|]. split; [exact R'|].
  rewrite <- S1, pmap_length. auto.
Qed.

Lemma step_iter_seek c s sp i k :
  Inv c s -> Rel s sp -> step_good c s sp (step fixed_modes c s (OIterSeek i k)) (sstep sp (OIterSeek i k)).
Proof.
  intros I R. cbn [step sstep].
  destruct (nth_error (iters s) i) as [it|] eqn:Hi.
  2:{ rewrite (Forall2_nth_none _ _ _ _ (r_its _ _ R) Hi). split; [|split]; auto. }
  destruct (Forall2_nth _ _ _ _ _ (r_its _ _ R) Hi) as [si [Hs (L1 & P1 & S1 & K1 & X1)]].
  rewrite Hs, <- L1.
  destruct (ilive it) eqn:EL; [|split; [|split]; auto].
  destruct (client_buf_ok c s sp k I R) as (I0 & R0 & Q0 & V0 & O0 & D0 & E0).
  destruct (client_buf s k) as [s0 kr]. cbn [fst snd] in *.
  assert (nth_error (iters s0) i = Some it) as Hi0 by (rewrite (q_iters _ _ Q0); auto).
  assert (seek_pos (isrcs it) k = seek_pos (slist si) k) as EP.
  { apply seek_pos_keys. rewrite <- S1, map_fst_pmap. auto. }
  set (p := seek_pos (isrcs it) k) in *.
  pose proof (iter_load_ok c s0 sp i it si p I0 R0 Hi0 Hs (eq_sym L1)) as H. cbv zeta in H.
  destruct (iter_load fixed_modes c s0 it p) as [s1 it'] eqn:EE. cbn [fst snd] in *.
  destruct H as [I' R'].
  rewrite <- EP.
  split; [exact I'|]. split; [exact R'|].
  rewrite <- S1, pmap_length. auto.
Qed.

Lemma step_iter_read c s sp i :
  Inv c s -> Rel s sp -> step_good c s sp (step fixed_modes c s (OIterRead i)) (sstep sp (OIterRead i)).
Proof.
  intros I R. cbn [step sstep].
  destruct (nth_error (iters s) i) as [it|] eqn:Hi.
  2:{ rewrite (Forall2_nth_none _ _ _ _ (r_its _ _ R) Hi). split; [|split]; auto. }
  destruct (Forall2_nth _ _ _ _ _ (r_its _ _ R) Hi) as [si [Hs (L1 & P1 & S1 & K1 & X1)]].
  rewrite Hs, <- L1, <- P1.
  destruct (ilive it) eqn:EL; cbn [andb]; [|split; [|split]; auto].
  unfold valid_pos. destruct (ipos it) as [p|] eqn:EP; [|split; [|split]; auto].
  assert (length (slist si) = length (isrcs it)) as EL2 by (rewrite <- S1; apply pmap_length).
  destruct (Nat.ltb p (length (isrcs it))) eqn:ELt.
  - apply Nat.ltb_lt in ELt.
    destruct (nth_error (slist si) p) as [[k v]|] eqn:EN.
    + destruct (X1 p k v eq_refl EN) as [-> ->]. split; [|split]; auto.
    + apply nth_error_None in EN. lia.
  - apply Nat.ltb_ge in ELt.
    assert (nth_error (slist si) p = None) as -> by (apply nth_error_None; lia).
    split; [|split]; auto.
Qed.

Lemma step_iter_release c s sp i :
  Inv c s -> Rel s sp -> step_good c s sp (step fixed_modes c s (OIterRelease i)) (sstep sp (OIterRelease i)).
Proof.
  intros I R. cbn [step sstep].
  destruct (nth_error (iters s) i) as [it|] eqn:Hi.
  2:{ rewrite (Forall2_nth_none _ _ _ _ (r_its _ _ R) Hi). split; [|split]; auto. }
  destruct (Forall2_nth _ _ _ _ _ (r_its _ _ R) Hi) as [si [Hs (L1 & P1 & S1 & K1 & X1)]].
  rewrite Hs. cbn [fst snd].
  set (it' := {| ikbuf := ikbuf it; ivbuf := ivbuf it; iexk := iexk it; iexv := iexv it; isrcs := isrcs it; ipos := ipos it; ilive := false |}).
  destruct (i_iters _ _ I) as [IO ND].
  assert (iter_ok s it) as IOi by (eapply Forall_forall in IO; eauto; eapply nth_error_In; eauto).
  split; [|split; auto].
  - apply inv_set_iters; auto. split; simpl.
    + apply (Forall_replace_nth_gen (iter_ok s) (iter_ok s)); auto.
    + rewrite (iter_bufs_replace i (iters s) it it'); auto.
  - apply (rel_set_iters s sp _ _ R). simpl.
    apply (Forall2_replace_nth_gen (iter_rel s) (iter_rel s)); [apply R|auto|].
    unfold iter_rel. cbn [it' ilive ipos isrcs iexk iexv slive spos slist]. auto.
Qed.

Theorem step_ok c s sp o :
  Inv c s -> Rel s sp -> step_good c s sp (step fixed_modes c s o) (sstep sp o).
Proof.
  intros I R. pose proof (txn_some_agree _ _ R) as TA.
  destruct o.
  - (* Put *) cbn [step sstep]. rewrite <- TA. destruct (txn s) eqn:ET; cbn [is_some].
    + split; [|split]; auto.
    + destruct (step_put_rec c s sp k v false I R ET) as [A B]. split; [|split]; auto.
  - (* Delete *) cbn [step sstep]. rewrite <- TA. destruct (txn s) eqn:ET; cbn [is_some].
    + split; [|split]; auto.
    + destruct (step_put_rec c s sp k [] true I R ET) as [A B]. split; [|split]; auto.
  - (* Batch.Put *) cbn [step sstep]. destruct (step_batch_append c s sp k v false I R) as [A B]. split; [|split]; auto.
  - (* Batch.Delete *) cbn [step sstep]. destruct (step_batch_append c s sp k [] true I R) as [A B]. split; [|split]; auto.
  - cbn [step sstep]. rewrite <- TA. destruct (txn s) eqn:ET; cbn [is_some].
    + split; [|split]; auto.
    + destruct (step_batch_write c s sp I R ET) as [A B]. split; [|split]; auto.
  - apply step_get; auto.
  - apply step_has; auto.
  - cbn [step sstep]. destruct (step_txn_open c s sp I R) as [A B].
    destruct (stxn sp); split; [|split| |split]; auto.
  - (* Transaction.Put *) cbn [step sstep]. destruct (step_txn_put c s sp k v false I R) as [A B].
    destruct (stxn sp); split; [|split| |split]; auto.
  - (* Transaction.Delete *) cbn [step sstep]. destruct (step_txn_put c s sp k [] true I R) as [A B].
    destruct (stxn sp); split; [|split| |split]; auto.
  - apply step_txnget; auto.
  - cbn [step sstep]. destruct (step_txn_commit c s sp I R) as [A B].
    destruct (stxn sp); split; [|split| |split]; auto.
  - cbn [step sstep]. destruct (step_txn_discard c s sp I R) as [A B]. split; [|split]; auto.
  - cbn [step sstep]. destruct (step_iter_new c s sp I R) as [A B]. split; [|split]; auto.
  - apply step_iter_next; auto.
  - apply step_iter_seek; auto.
  - apply step_iter_read; auto.
  - apply step_iter_release; auto.
  - cbn [step sstep]. destruct (rotate_ok c s sp I R) as (A & B & _). split; [|split]; auto.
  - cbn [step sstep]. destruct (flush_ok c s sp I R) as (A & B & _). split; [|split]; auto.
  - cbn [step sstep]. destruct (compact_ok c s sp I R) as (A & B). split; [|split]; auto.
  - cbn [step sstep]. destruct (evict_ok c s sp n I R) as (A & B). split; [|split]; auto.
  - cbn [step sstep]. destruct (txn_flush_ok c s sp I R) as (A & B & _). split; [|split]; auto.
  - apply step_scribble; auto.
Qed.
