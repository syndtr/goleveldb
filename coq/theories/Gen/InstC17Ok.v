(* Gen/InstC17Ok.v — side condition of the theorems about the cache's hash table (Conc/CacheTable.v) for
   the constants read from cache.go: mInitialSize is a power of two. *)
From GL Require Import Conc.CacheTable Gen.InstC17.
Local Open Scope N_scope.

Lemma cache_tp_ok : exists e, tp_init cache_tp = 2 ^ e.
Proof. exists (N.log2 (tp_init cache_tp)). vm_compute. reflexivity. Qed.

Lemma cache_tp_values : (tp_init cache_tp, tp_ovf cache_tp, tp_ovfgrow cache_tp) = (16, 32, 128).
Proof. vm_compute. reflexivity. Qed.
