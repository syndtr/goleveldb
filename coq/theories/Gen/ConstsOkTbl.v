(* Gen/ConstsOkTbl.v — re-proves, by computation, the side conditions the table theorems assume
   of the generated constants (trailer = 1 type byte + 4 CRC bytes, footer large enough for two
   maximal block handles plus the 8-byte magic, distinct block types). *)
From GL Require Import Gen.Consts Codec.Table.
From GL Require Export Gen.InstTbl.

Lemma tblp_ok : tparams_ok tblp.
Proof.
  unfold tparams_ok, tblp; cbn [tp_trailerLen tp_footerLen tp_magic tp_typeNone tp_typeSnappy].
  repeat split; try (vm_compute; congruence); try (vm_compute; reflexivity).
  unfold wf_bytes, wf_byte. repeat constructor; vm_compute; reflexivity.
Qed.

(* The on-disk format constants may not change: table.go says "these constants are part of the file
   format and should not be changed".  Writer, reader and the regenerated model constants all
   follow the source, so a changed magic number or block type would go unnoticed by any round
   trip; here it breaks a proof obligation (and the harness reads a stored golden file). *)
Lemma tbl_format_pinned :
  tbl_magic = [87; 251; 128; 139; 36; 117; 71; 219]%N /\
  tbl_blockTypeNoCompression = 0%N /\ tbl_blockTypeSnappyCompression = 1%N /\
  tbl_blockTrailerLen = 5%N /\ tbl_footerLen = 48%N.
Proof. repeat split; reflexivity. Qed.
