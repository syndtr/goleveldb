(* Gen/OptionsProofs.v — proofs about the options model Gen/Options.v.  Facts about the generated defaults are
   re-proved here by computation on every run: a changed default that breaks a relation breaks the build. *)
From Coq Require Import ZArith List Bool Lia.
From GL Require Import Gen.Consts Gen.Options.
Import ListNotations.
Open Scope Z_scope.

Ltac by_compute := apply Z.leb_le; vm_compute; reflexivity.

Lemma dflt_restart_interval_pos : 1 <= dflt opt_DefaultBlockRestartInterval. Proof. by_compute. Qed.
Lemma dflt_block_size_pos : 1 <= dflt opt_DefaultBlockSize. Proof. by_compute. Qed.
Lemma dflt_write_buffer_pos : 1 <= dflt opt_DefaultWriteBuffer. Proof. by_compute. Qed.
Lemma dflt_max_manifest_pos : 1 <= dflt opt_DefaultMaxManifestFileSize. Proof. by_compute. Qed.
Lemma dflt_l0_trigger_pos : 1 <= dflt opt_DefaultCompactionL0Trigger. Proof. by_compute. Qed.
Lemma dflt_l0_order_slow : dflt opt_DefaultCompactionL0Trigger <= dflt opt_DefaultWriteL0SlowdownTrigger. Proof. by_compute. Qed.
Lemma dflt_l0_order_pause : dflt opt_DefaultWriteL0SlowdownTrigger <= dflt opt_DefaultWriteL0PauseTrigger. Proof. by_compute. Qed.
Lemma dflt_filter_base_lo : 1 <= dflt opt_DefaultFilterBaseLg. Proof. by_compute. Qed.
Lemma dflt_filter_base_hi : dflt opt_DefaultFilterBaseLg <= 63. Proof. by_compute. Qed.
Lemma max_filter_base_lo : 1 <= maxFilterBaseLg. Proof. by_compute. Qed.
Lemma max_filter_base_hi : maxFilterBaseLg <= 63. Proof. by_compute. Qed.
Lemma dflt_sampling_lo : 1 <= dflt opt_DefaultIteratorSamplingRate. Proof. by_compute. Qed.
Lemma dflt_sampling_hi : dflt opt_DefaultIteratorSamplingRate <= 2 ^ 62 - 1. Proof. by_compute. Qed.
Lemma max_sampling_lo : 1 <= maxIteratorSamplingRate. Proof. by_compute. Qed.
Lemma max_sampling_hi : maxIteratorSamplingRate <= 2 ^ 62 - 1. Proof. by_compute. Qed.
Lemma dflt_block_cache_nonneg : 0 <= dflt opt_DefaultBlockCacheCapacity. Proof. by_compute. Qed.
Lemma dflt_open_files_nonneg : 0 <= dflt opt_DefaultOpenFilesCacheCapacity. Proof. by_compute. Qed.
Lemma dflt_table_size_pos : 1 <= dflt opt_DefaultCompactionTableSize. Proof. by_compute. Qed.
Lemma dflt_total_size_pos : 1 <= dflt opt_DefaultCompactionTotalSize. Proof. by_compute. Qed.
Lemma dflt_expand_factor_pos : 1 <= dflt opt_DefaultCompactionExpandLimitFactor. Proof. by_compute. Qed.
Lemma dflt_gp_factor_pos : 1 <= dflt opt_DefaultCompactionGPOverlapsFactor. Proof. by_compute. Qed.
Lemma dflt_source_factor_pos : 1 <= dflt opt_DefaultCompactionSourceLimitFactor. Proof. by_compute. Qed.
Lemma dflt_compression_valid :
  dflt opt_DefaultCompressionType = dflt opt_NoCompression \/ dflt opt_DefaultCompressionType = dflt opt_SnappyCompression.
Proof. right. vm_compute. reflexivity. Qed.
Lemma compression_consts :
  dflt opt_DefaultCompression = 0 /\ dflt opt_NoCompression = 1 /\ dflt opt_SnappyCompression = 2 /\ dflt opt_nCompression = 3.
Proof. vm_compute. repeat split; reflexivity. Qed.

Lemma dflt_nonneg : forall n, 0 <= dflt n.
Proof. intro n. unfold dflt. apply N2Z.is_nonneg. Qed.

(* the two shapes of a clamping scalar getter; the "-1 disables" convention: every negative capacity gives 0.
   Gen/Options.v writes each getter out on its own field; the lemmas below apply to them up to conversion *)
Definition or_default (x d : Z) : Z := if x <=? 0 then d else x.
Definition capacity (x d : Z) : Z := if x =? 0 then d else if x <? 0 then 0 else x.

Lemma or_default_pos x d : 1 <= d -> 1 <= or_default x d.
Proof. intros H. unfold or_default. destruct (Z.leb_spec x 0); lia. Qed.

Lemma capacity_cases x d : (0 <= d -> 0 <= capacity x d) /\ (x < 0 -> capacity x d = 0) /\ (0 < x -> capacity x d = x).
Proof. unfold capacity. destruct (Z.eqb_spec x 0); [lia|]. destruct (Z.ltb_spec x 0); lia. Qed.

Lemma restart_interval_pos : forall o, 1 <= GetBlockRestartInterval o.
Proof. intros [o|]; [apply or_default_pos|]; exact dflt_restart_interval_pos. Qed.

Lemma block_size_pos : forall o, 1 <= GetBlockSize o.
Proof. intros [o|]; [apply or_default_pos|]; exact dflt_block_size_pos. Qed.

Lemma write_buffer_pos : forall o, 1 <= GetWriteBuffer o.
Proof. intros [o|]; [apply or_default_pos|]; exact dflt_write_buffer_pos. Qed.

Lemma max_manifest_pos : forall o, 1 <= GetMaxManifestFileSize o.
Proof. intros [o|]; [apply or_default_pos|]; exact dflt_max_manifest_pos. Qed.

Lemma l0_trigger_pos : forall o, 1 <= GetCompactionL0Trigger o.
Proof. intros [o|]; [apply or_default_pos|]; exact dflt_l0_trigger_pos. Qed.

Lemma block_cache_capacity_nonneg : forall o, 0 <= GetBlockCacheCapacity o.
Proof. intros [o|]; [apply capacity_cases|]; exact dflt_block_cache_nonneg. Qed.

Lemma open_files_capacity_nonneg : forall o, 0 <= GetOpenFilesCacheCapacity o.
Proof. intros [o|]; [apply capacity_cases|]; exact dflt_open_files_nonneg. Qed.

Lemma block_cache_negative_disables : forall o, BlockCacheCapacity o < 0 -> GetBlockCacheCapacity (Some o) = 0.
Proof. intros o. apply capacity_cases. Qed.

Lemma open_files_negative_disables : forall o, OpenFilesCacheCapacity o < 0 -> GetOpenFilesCacheCapacity (Some o) = 0.
Proof. intros o. apply capacity_cases. Qed.

Lemma block_cache_positive_kept : forall o, 0 < BlockCacheCapacity o -> GetBlockCacheCapacity (Some o) = BlockCacheCapacity o.
Proof. intros o. apply capacity_cases. Qed.

Lemma open_files_positive_kept : forall o, 0 < OpenFilesCacheCapacity o -> GetOpenFilesCacheCapacity (Some o) = OpenFilesCacheCapacity o.
Proof. intros o. apply capacity_cases. Qed.

Lemma l0_pause_ge_trigger : forall o, GetCompactionL0Trigger o <= GetWriteL0PauseTrigger o.
Proof.
  intro o. unfold GetWriteL0PauseTrigger.
  destruct (_ <? GetCompactionL0Trigger o) eqn:E.
  - lia.
  - apply Z.ltb_ge in E. exact E.
Qed.

Lemma pause_implies_compaction : forall o tlen, writer_pauses o tlen = true -> need_l0_compaction o tlen = true.
Proof.
  intros o tlen H. unfold writer_pauses, writer_pauses_with in H. apply Z.leb_le in H.
  unfold need_l0_compaction, need_l0_compaction_with.
  pose proof (l0_trigger_pos o). pose proof (l0_pause_ge_trigger o).
  apply andb_true_iff; split; [apply Z.ltb_lt | apply Z.leb_le]; lia.
Qed.

Lemma filter_base_range : forall o, 1 <= GetFilterBaseLg o <= 63.
Proof.
  intro o. pose proof dflt_filter_base_lo. pose proof dflt_filter_base_hi.
  pose proof max_filter_base_lo. pose proof max_filter_base_hi.
  destruct o as [o|]; cbn [GetFilterBaseLg]; [|lia].
  destruct (Z.leb_spec (FilterBaseLg o) 0); [lia|]. destruct (Z.ltb_spec maxFilterBaseLg (FilterBaseLg o)); lia.
Qed.

Lemma filter_shift_holds : forall o, filter_shift_ok (GetFilterBaseLg o) = true.
Proof.
  intro o. pose proof (filter_base_range o). unfold filter_shift_ok.
  apply andb_true_iff; split; [apply Z.leb_le | apply Z.ltb_lt]; lia.
Qed.

Lemma sampling_range : forall o, 0 <= GetIteratorSamplingRate o <= 2 ^ 62 - 1.
Proof.
  intro o. pose proof dflt_sampling_lo. pose proof dflt_sampling_hi.
  pose proof max_sampling_lo. pose proof max_sampling_hi.
  destruct o as [o|]; cbn [GetIteratorSamplingRate]; [|lia].
  destruct (Z.eqb_spec (IteratorSamplingRate o) 0); [lia|]. destruct (Z.ltb_spec (IteratorSamplingRate o) 0); [lia|].
  destruct (Z.ltb_spec maxIteratorSamplingRate (IteratorSamplingRate o)); lia.
Qed.

Lemma wrap64_id : forall z, - 2 ^ 63 <= z < 2 ^ 63 -> wrap64 z = z.
Proof.
  intros z H. unfold wrap64, two63, two64.
  rewrite Z.mod_small; [lia|].
  change (2 ^ 64) with (2 ^ 63 + 2 ^ 63). lia.
Qed.

Lemma sampling_holds : forall o, sampling_ok (GetIteratorSamplingRate o) = true.
Proof.
  intro o. pose proof (sampling_range o) as H. unfold sampling_ok, sampling_arg.
  destruct (GetIteratorSamplingRate o <=? 0) eqn:E; [reflexivity|]. apply Z.leb_gt in E. cbn [orb].
  rewrite wrap64_id.
  - apply Z.ltb_lt. lia.
  - change (2 ^ 63) with (2 * 2 ^ 62). lia.
Qed.

Lemma compression_valid : forall o, GetCompression o = dflt opt_NoCompression \/ GetCompression o = dflt opt_SnappyCompression.
Proof.
  intro o. pose proof dflt_compression_valid as D. destruct compression_consts as (C0 & C1 & C2 & C3).
  unfold GetCompression. destruct o as [o|]; [|exact D].
  destruct ((Compression o <=? dflt opt_DefaultCompression) || (dflt opt_nCompression <=? Compression o)) eqn:E; [exact D|].
  apply orb_false_iff in E. destruct E as [E1 E2]. apply Z.leb_gt in E1. apply Z.leb_gt in E2.
  rewrite C1, C2. lia.
Qed.

Lemma factor_pos : forall o f d, 1 <= dflt d -> 1 <= factor_of o f d.
Proof. intros [o|] f d H; cbn [factor_of]; [|exact H]. destruct (Z.ltb_spec 0 (f o)); lia. Qed.

Lemma strict_zero_is_default : forall o s, Strict o = 0 -> GetStrict (Some o) s = GetStrict None s.
Proof. intros o s H. unfold GetStrict. rewrite H. reflexivity. Qed.

Lemma pos_split : forall p, Zpos p = Zpos (pos_odd p) * 2 ^ pos_tz p /\ 0 <= pos_tz p.
Proof.
  induction p as [p IH|p IH|]; cbn [pos_odd pos_tz].
  - split; [rewrite Z.pow_0_r; lia | lia].
  - destruct IH as [IH1 IH2]. split; [|lia].
    rewrite Z.pow_add_r by lia. change (2 ^ 1) with 2.
    change (Z.pos p~0) with (2 * Z.pos p). rewrite IH1 at 1. ring.
  - split; [rewrite Z.pow_0_r; lia | lia].
Qed.

Lemma norm_pos : forall m e m' e', 0 < m -> norm m e = (m', e') -> 0 < m' /\ exists k, 0 <= k /\ m = m' * 2 ^ k /\ e' = e + k.
Proof.
  intros m e m' e' Hm H. destruct m as [|p|p]; try lia. cbn [norm] in H. inversion H; subst.
  split; [lia|]. destruct (pos_split p) as [S1 S2]. exists (pos_tz p). repeat split; auto.
Qed.

(* the value m * 2^e is at least one *)
Definition ge1 (m e : Z) : Prop := 2 ^ Z.max (- e) 0 <= m * 2 ^ Z.max e 0.

Lemma pow2_pos : forall k, 0 < 2 ^ k \/ k < 0.
Proof. intro k. destruct (Z_lt_le_dec k 0); [right; lia | left; apply Z.pow_pos_nonneg; lia]. Qed.

Lemma ge1_nonneg m e : 0 <= e -> (ge1 m e <-> 1 <= m * 2 ^ e).
Proof. intros H. unfold ge1. rewrite (Z.max_r (- e) 0), (Z.max_l e 0), Z.pow_0_r by lia. reflexivity. Qed.

Lemma ge1_neg m e : e <= 0 -> (ge1 m e <-> 2 ^ (- e) <= m).
Proof. intros H. unfold ge1. rewrite (Z.max_l (- e) 0), (Z.max_r e 0), Z.pow_0_r, Z.mul_1_r by lia. reflexivity. Qed.

Lemma ge1_norm : forall m e m' k, 0 < m' -> 0 <= k -> m = m' * 2 ^ k -> ge1 m e -> ge1 m' (e + k).
Proof.
  intros m e m' k Hm' Hk -> H. destruct (Z_lt_le_dec (e + k) 0) as [Hn|Hn].
  - apply ge1_neg in H; [|lia]. apply ge1_neg; [lia|].
    replace (- e) with (- (e + k) + k) in H by lia. rewrite Z.pow_add_r in H by lia.
    assert (0 < 2 ^ k) by (apply Z.pow_pos_nonneg; lia).
    apply Z.mul_le_mono_pos_r in H; auto.
  - apply ge1_nonneg; [lia|]. assert (0 < 2 ^ (e + k)) by (apply Z.pow_pos_nonneg; lia). nia.
Qed.

Lemma ge1_pow : forall m e n, 0 < m -> 0 <= n -> ge1 m e -> ge1 (m ^ n) (e * n).
Proof.
  intros m e n Hm Hn H.
  assert (Hmn : 0 < m ^ n) by (apply Z.pow_pos_nonneg; lia).
  destruct (Z_lt_le_dec e 0) as [He|He].
  - apply ge1_neg in H; [|lia]. apply ge1_neg; [nia|].
    replace (- (e * n)) with ((- e) * n) by ring. rewrite Z.pow_mul_r by lia.
    apply Z.pow_le_mono_l. split; [apply Z.pow_nonneg; lia | exact H].
  - apply ge1_nonneg; [nia|]. assert (0 < 2 ^ (e * n)) by (apply Z.pow_pos_nonneg; nia). nia.
Qed.

Lemma ge1_trunc : forall base m e, 0 <= base -> 0 < m -> ge1 m e -> base <= trunc_dy (base * m) e.
Proof.
  intros base m e Hb Hm H. unfold trunc_dy. destruct (Z.leb_spec 0 e) as [E|E].
  - apply ge1_nonneg in H; [nia|exact E].
  - apply ge1_neg in H; [|lia]. assert (0 < 2 ^ (- e)) by (apply Z.pow_pos_nonneg; lia).
    apply Z.quot_le_lower_bound; [assumption | nia].
Qed.

Lemma trunc_nonneg : forall a e, 0 <= a -> 0 <= trunc_dy a e.
Proof.
  intros a e Ha. unfold trunc_dy. destruct (0 <=? e) eqn:E.
  - apply Z.leb_le in E. apply Z.mul_nonneg_nonneg; [assumption | apply Z.pow_nonneg; lia].
  - apply Z.leb_gt in E. apply Z.quot_pos; [assumption | apply Z.pow_pos_nonneg; lia].
Qed.

Lemma pow_model_some x n m e : pow_model x n = Some (m, e) ->
  (m, e) = (1, 0)
  \/ exists mm ee m' e', x = Dy mm ee /\ norm mm ee = (m', e') /\ 0 <= n /\ ((m, e) = (m', e') \/ (m, e) = (m' ^ n, e' * n)).
Proof.
  unfold pow_model. destruct (n =? 0); [intros [= <- <-]; auto|].
  destruct x as [mm ee| |]; try discriminate. destruct (norm mm ee) as [m' e'] eqn:N.
  destruct ((m' =? 1) && (e' =? 0)); [intros [= <- <-]; auto|].
  destruct (n <? 0) eqn:Hn; [discriminate|]. apply Z.ltb_ge in Hn.
  destruct (negb (fl_repr mm ee)); [discriminate|].
  intros H. right. exists mm, ee, m', e'. repeat split; auto.
  destruct (n =? 1); [left; now inversion H|].
  destruct (max_exact_level <? n); [discriminate|].
  destruct (_ && _); [right; now inversion H|discriminate].
Qed.

Lemma pow_model_pos : forall x n m e, fl_pos x = true -> pow_model x n = Some (m, e) -> 0 < m.
Proof.
  intros x n m e Hp H. apply pow_model_some in H.
  destruct H as [[= -> ->]|(mm & ee & m' & e' & -> & N & Hn & H)]; [lia|].
  cbn [fl_pos] in Hp. apply Z.ltb_lt in Hp. destruct (norm_pos _ _ _ _ Hp N) as [Hm' _].
  destruct H as [[= -> ->]|[= -> ->]]; [assumption|apply Z.pow_pos_nonneg; lia].
Qed.

Definition fl_ge_one (x : fl) : Prop := fl_pos x = true /\ fl_lt_one x = false.

Lemma ge1_one : ge1 1 0.
Proof. apply ge1_nonneg; cbn; lia. Qed.

Lemma pow_model_ge1 : forall x n m e, fl_ge_one x -> pow_model x n = Some (m, e) -> 0 < m /\ ge1 m e.
Proof.
  intros x n m e [Hp Hl] H. split; [eapply pow_model_pos; eauto|]. apply pow_model_some in H.
  destruct H as [[= -> ->]|(mm & ee & m' & e' & -> & N & Hn & H)]; [apply ge1_one|].
  cbn [fl_pos] in Hp. apply Z.ltb_lt in Hp. cbn [fl_lt_one] in Hl.
  destruct (norm_pos _ _ _ _ Hp N) as [Hm' (k & Hk & Hmk & ->)].
  assert (G : ge1 m' (ee + k)).
  { eapply ge1_norm; eauto. destruct (Z.leb_spec 0 ee) as [E|E]; apply Z.ltb_ge in Hl.
    - apply ge1_nonneg; [exact E|]. assert (0 < 2 ^ ee) by (apply Z.pow_pos_nonneg; lia). nia.
    - apply ge1_neg; lia. }
  destruct H as [[= -> ->]|[= -> ->]]; [exact G|apply ge1_pow; auto].
Qed.

Lemma exact_of_pos : forall x m e, fl_pos x = true -> exact_of x = Some (m, e) -> 0 < m.
Proof.
  intros x m e Hp H. destruct x as [mm ee| |]; try discriminate. cbn [exact_of] in H.
  destruct (fl_repr mm ee); [|discriminate]. inversion H as [N].
  cbn [fl_pos] in Hp. apply Z.ltb_lt in Hp. destruct (norm_pos _ _ _ _ Hp N). assumption.
Qed.

Lemma mult_of_pos : forall clamp pl g dm level m e,
  (forall x, fl_pos x = true -> fl_pos (clamp x) = true) -> fl_pos dm = true ->
  mult_of clamp pl g dm level = Some (m, e) -> 0 < m.
Proof.
  intros clamp pl g dm level m e Hc Hd H. unfold mult_of in H.
  destruct (nth_error pl (Z.to_nat level)) as [x|].
  - destruct (fl_pos x) eqn:Px; [eapply exact_of_pos; eauto|].
    destruct (fl_pos g) eqn:Pg; (eapply pow_model_pos; [|exact H]; auto).
  - destruct (fl_pos g) eqn:Pg; (eapply pow_model_pos; [|exact H]; auto).
Qed.

Lemma size_of_val base mult z : size_of base mult = Val z -> exists m e, mult = Some (m, e) /\ z = trunc_dy (base * m) e.
Proof.
  unfold size_of. destruct mult as [[m e]|]; [|discriminate].
  destruct (negb (fl_repr base 0)); [discriminate|].
  destruct (negb (fl_repr (base * m) e)); [discriminate|].
  destruct (Z.abs (trunc_dy (base * m) e) <? two63); [|discriminate].
  intros [= <-]. eauto.
Qed.

Lemma size_of_nonneg : forall base mult z, 0 <= base -> (forall m e, mult = Some (m, e) -> 0 < m) -> size_of base mult = Val z -> 0 <= z.
Proof.
  intros base mult z Hb Hm H. apply size_of_val in H. destruct H as (m & e & E & ->).
  apply trunc_nonneg. specialize (Hm m e E). nia.
Qed.

Lemma size_of_ge_base : forall base mult z, 0 <= base -> (forall m e, mult = Some (m, e) -> 0 < m /\ ge1 m e) ->
  size_of base mult = Val z -> base <= z.
Proof.
  intros base mult z Hb Hm H. apply size_of_val in H. destruct H as (m & e & E & ->).
  destruct (Hm m e E). apply ge1_trunc; auto.
Qed.

Lemma dflt_table_mult_pos : fl_pos DefaultTableMult = true. Proof. vm_compute. reflexivity. Qed.
Lemma dflt_total_mult_pos : fl_pos DefaultTotalMult = true. Proof. vm_compute. reflexivity. Qed.
Lemma dflt_total_mult_ge_one : fl_ge_one DefaultTotalMult. Proof. split; vm_compute; reflexivity. Qed.
Lemma dflt_table_mult_ge_one : fl_ge_one DefaultTableMult. Proof. split; vm_compute; reflexivity. Qed.

Lemma no_clamp_pos : forall x, fl_pos x = true -> fl_pos (no_clamp x) = true.
Proof. intros x H. exact H. Qed.

Lemma clamp_ge_one_pos : forall x, fl_pos x = true -> fl_pos (clamp_ge_one x) = true.
Proof. intros x H. unfold clamp_ge_one. destruct (fl_lt_one x); [reflexivity | exact H]. Qed.

Lemma clamp_ge_one_ge_one : forall x, fl_pos x = true -> fl_ge_one (clamp_ge_one x).
Proof.
  intros x H. unfold clamp_ge_one. destruct (fl_lt_one x) eqn:E.
  - split; reflexivity.
  - split; assumption.
Qed.

(* the common shape of GetCompactionTableSize and GetCompactionTotalSize *)
Definition size_with (clamp : fl -> fl) (f : Options -> Z) (pl : Options -> list fl) (g : Options -> fl) (d : N) (dm : fl)
           (o : option Options) (level : Z) : gres :=
  match o with
  | None => size_of (dflt d) (pow_model dm level)
  | Some o => if level <? 0 then GoPanic else size_of (factor_of (Some o) f d) (mult_of clamp (pl o) (g o) dm level)
  end.

Lemma size_with_nonneg clamp f pl g d dm :
  (forall x, fl_pos x = true -> fl_pos (clamp x) = true) -> 1 <= dflt d -> fl_pos dm = true ->
  forall o level z, size_with clamp f pl g d dm o level = Val z -> 0 <= z.
Proof.
  intros Hc Hd Hdm [o|] level z; cbn [size_with].
  - destruct (level <? 0); [discriminate|]. pose proof (factor_pos (Some o) f d Hd).
    apply size_of_nonneg; [lia|]. intros m e. apply mult_of_pos; assumption.
  - apply size_of_nonneg; [lia|]. intros m e. apply pow_model_pos, Hdm.
Qed.

Lemma table_size_nonneg : forall o level z, GetCompactionTableSize o level = Val z -> 0 <= z.
Proof.
  exact (size_with_nonneg no_clamp CompactionTableSize CompactionTableSizeMultiplierPerLevel CompactionTableSizeMultiplier
           _ _ no_clamp_pos dflt_table_size_pos dflt_table_mult_pos).
Qed.

Lemma total_size_nonneg : forall o level z, GetCompactionTotalSize o level = Val z -> 0 <= z.
Proof.
  exact (size_with_nonneg clamp_ge_one CompactionTotalSize CompactionTotalSizeMultiplierPerLevel CompactionTotalSizeMultiplier
           _ _ clamp_ge_one_pos dflt_total_size_pos dflt_total_mult_pos).
Qed.

(* the base of the total-size limits *)
Definition total_base (o : option Options) : Z :=
  match o with
  | None => dflt opt_DefaultCompactionTotalSize
  | Some o => if 0 <? CompactionTotalSize o then CompactionTotalSize o else dflt opt_DefaultCompactionTotalSize
  end.

Definition per_level_len (o : option Options) : Z :=
  match o with None => 0 | Some o => Z.of_nat (length (CompactionTotalSizeMultiplierPerLevel o)) end.

Lemma total_base_pos : forall o, 1 <= total_base o.
Proof.
  intro o. pose proof dflt_total_size_pos. unfold total_base. destruct o as [o|]; [|lia].
  destruct (0 <? CompactionTotalSize o) eqn:E; [apply Z.ltb_lt in E; lia | lia].
Qed.

(* beyond the per-level table no total-size limit is below the base limit (hence none is zero) *)
Lemma total_size_ge_base : forall o level z,
  per_level_len o <= level -> GetCompactionTotalSize o level = Val z -> total_base o <= z.
Proof.
  intros o level z Hl H. pose proof (total_base_pos o) as B.
  unfold GetCompactionTotalSize, total_size_with in H. destruct o as [o|].
  - destruct (level <? 0) eqn:L0; [discriminate|]. apply Z.ltb_ge in L0.
    cbn [total_base] in *. cbn [per_level_len] in Hl.
    refine (size_of_ge_base _ _ z _ _ H); [lia|].
    intros m e Hm. unfold mult_of in Hm.
    assert (N : nth_error (CompactionTotalSizeMultiplierPerLevel o) (Z.to_nat level) = None).
    { apply nth_error_None. lia. }
    rewrite N in Hm.
    destruct (fl_pos (CompactionTotalSizeMultiplier o)) eqn:Pg.
    + eapply pow_model_ge1; [apply clamp_ge_one_ge_one; exact Pg | exact Hm].
    + eapply pow_model_ge1; [apply dflt_total_mult_ge_one | exact Hm].
  - cbn [total_base] in *. refine (size_of_ge_base _ _ z _ _ H); [lia|].
    intros m e Hm. eapply pow_model_ge1; [apply dflt_total_mult_ge_one | exact Hm].
Qed.

(* the buffer pool of the table layer: fine for every block size up to 2^60 *)
Lemma pool_ok_small : forall o, GetBlockSize o <= 2 ^ 60 -> pool_ok (GetBlockSize o) = true.
Proof.
  intros o H. pose proof (block_size_pos o) as P. unfold pool_ok, pool_baseline.
  rewrite wrap64_id.
  - apply andb_true_iff; split; [apply Z.ltb_lt; lia | apply Z.leb_le].
    unfold maxInt, two63. change (2 ^ 63) with (8 * 2 ^ 60). lia.
  - change (2 ^ 63) with (8 * 2 ^ 60). lia.
Qed.

(* witnesses of the refuted relations (the same values the harness exercises on the real DB:
   harness/cmd/c09/optwit.go) *)
Definition fz : fl := Dy 0 0.
Definition half : fl := Dy 1 (-1).

(* only the fields the relations talk about; everything else is the zero value *)
Definition mk (bs l0 ts : Z) (tm : fl) (tot : Z) (totm : fl) (totpl : list fl) (isr pause slow fbase elf : Z) : Options :=
  mkOptions 0 CNil 0 false 0 bs elf 0 l0 0 ts tm [] tot totm totpl true 0 false false false false false false false
            true isr false false CNil 0 false 0 0 pause slow fbase 0.

Definition w_pause_below_trigger : Options := mk 256 0 1024 fz 4096 fz [] 0 2 0 0 0.      (* WriteL0PauseTrigger = 2 *)
Definition w_trigger_above_pause : Options := mk 256 16 1024 fz 4096 fz [] 0 0 0 0 0.     (* CompactionL0Trigger = 16 *)
Definition w_trigger_negative : Options := mk 256 (-1) 1024 fz 4096 fz [] 0 0 0 0 0.
Definition w_slowdown_above_pause : Options := mk 256 2 1024 fz 4096 fz [] 0 4 10 0 0.
Definition w_filter_base_64 : Options := mk 256 0 1024 fz 4096 fz [] 0 0 0 64 0.
Definition w_sampling_maxint : Options := mk 256 0 1024 fz 4096 fz [] maxInt 0 0 0 0.
Definition w_total_mult_half : Options := mk 256 0 1024 fz 4096 half [] 0 0 0 0 0.
Definition w_total_per_level_tiny : Options := mk 256 0 1024 fz 4096 fz [Dy 1 0; Dy 1 (-30)] 0 0 0 0 0.
Definition w_table_1_mult_half : Options := mk 256 0 1 half 4096 fz [] 0 0 0 0 0.
Definition w_block_size_maxint : Options := mk maxInt 0 1024 fz 4096 fz [] 0 0 0 0 0.
Definition w_factor_wraps : Options := mk 256 0 1024 fz 4096 fz [] 0 0 0 0 (2 ^ 53).

Lemma l0_trigger_pos_old_refuted : exists o, GetCompactionL0Trigger_old o < 1.
Proof. exists (Some w_trigger_negative). vm_compute. reflexivity. Qed.

Lemma l0_pause_ge_trigger_old_refuted :
  GetWriteL0PauseTrigger_old (Some w_pause_below_trigger) < GetCompactionL0Trigger_old (Some w_pause_below_trigger) /\
  GetWriteL0PauseTrigger_old (Some w_trigger_above_pause) < GetCompactionL0Trigger_old (Some w_trigger_above_pause).
Proof. split; vm_compute; reflexivity. Qed.

(* the writer's pause loop: with 2 (resp. 12) tables at level 0 the writer pauses and no compaction is needed *)
Lemma pause_implies_compaction_old_refuted :
  exists o tlen, 0 <= tlen /\ writer_pauses_old o tlen = true /\ need_l0_compaction_old o tlen = false.
Proof. exists (Some w_pause_below_trigger), 2. repeat split; vm_compute; congruence. Qed.

Lemma l0_slowdown_order_refuted :
  exists o, ~ (GetCompactionL0Trigger o <= GetWriteL0SlowdownTrigger o <= GetWriteL0PauseTrigger o).
Proof. exists (Some w_slowdown_above_pause). vm_compute. intros [_ H]. apply H. reflexivity. Qed.

Lemma filter_shift_old_refuted : exists o, filter_shift_ok (GetFilterBaseLg_old o) = false.
Proof. exists (Some w_filter_base_64). vm_compute. reflexivity. Qed.

Lemma sampling_old_refuted : exists o, sampling_ok (GetIteratorSamplingRate_old o) = false.
Proof. exists (Some w_sampling_maxint). vm_compute. reflexivity. Qed.

(* 4096 * 0.5^13 = 0.5 -> 0: from level 13 on the limits of the getter before the repair are zero (already below
   one 1 KiB table from level 3 on) *)
Lemma total_size_ge_base_old_refuted :
  exists o level, per_level_len o <= level /\ GetCompactionTotalSize_old o level = Val 0 /\ 1 <= total_base o.
Proof. exists (Some w_total_mult_half), 13. repeat split; vm_compute; congruence. Qed.

(* the repaired getter returns 0 only through the per-level table (an explicit choice for that one level; harmless:
   see Props/C09O.v) *)
Lemma total_size_pos_refuted : exists o level, GetCompactionTotalSize o level = Val 0.
Proof. exists (Some w_total_per_level_tiny), 1. vm_compute. reflexivity. Qed.

Lemma table_size_pos_refuted : exists o level, GetCompactionTableSize o level = Val 0.
Proof. exists (Some w_table_1_mult_half), 1. vm_compute. reflexivity. Qed.

Lemma pool_refuted : exists o, pool_ok (GetBlockSize o) = false.
Proof. exists (Some w_block_size_maxint). vm_compute. reflexivity. Qed.

Lemma limit_nonneg_refuted : exists o z, GetCompactionExpandLimit o 0 = Val z /\ z < 0.
Proof. exists (Some w_factor_wraps), (- 2 ^ 63). split; vm_compute; reflexivity. Qed.

(* the repaired getters on the witnesses *)
Lemma witnesses_repaired :
  GetWriteL0PauseTrigger (Some w_pause_below_trigger) = 4 /\ GetWriteL0PauseTrigger (Some w_trigger_above_pause) = 16 /\
  GetCompactionL0Trigger (Some w_trigger_negative) = 4 /\ GetFilterBaseLg (Some w_filter_base_64) = 63 /\
  GetIteratorSamplingRate (Some w_sampling_maxint) = 2 ^ 62 - 1 /\
  GetCompactionTotalSize (Some w_total_mult_half) 13 = Val 4096.
Proof. vm_compute. repeat split; reflexivity. Qed.

(* non-vacuity of the float-derived statements: the defaults are inside the exact domain *)
Lemma default_sizes :
  map (GetCompactionTableSize None) [0; 1; 6; 64] = [Val 2097152; Val 2097152; Val 2097152; Val 2097152] /\
  map (GetCompactionTotalSize None) [0; 1; 2; 7] = [Val 10485760; Val 104857600; Val 1048576000; Val 104857600000000] /\
  GetCompactionExpandLimit None 0 = Val 52428800 /\ GetCompactionGPOverlaps None 0 = Val 20971520 /\
  GetCompactionSourceLimit None 0 = Val 2097152.
Proof. vm_compute. repeat split; reflexivity. Qed.

(* and the border of the domain for the default total sizes: 10 MiB * 10^11 is the last one below 2^63; from level 12
   on the real getter converts a float64 above MaxInt64 (amd64 yields MinInt64: a negative limit, for a level no
   database reaches) *)
Lemma default_total_size_domain :
  GetCompactionTotalSize None 11 = Val (10485760 * 10 ^ 11) /\ GetCompactionTotalSize None 12 = Outside.
Proof. vm_compute. split; reflexivity. Qed.

Lemma default_scalars :
  scalar_results None None None =
  [0; 0; 8388608; 0; 16; 4096; 4; 1; 2; 0; 0; 0; 0; 0; 0; 0; 0; 1048576; 0; 0; 0; 500; 0; 58; 4194304; 12; 8; 11; 67108864;
   0; 0; 0; 0; 58].
Proof. vm_compute. reflexivity. Qed.

Lemma total_size_ge_base_pos : forall o level z,
  per_level_len o <= level -> GetCompactionTotalSize o level = Val z -> total_base o <= z /\ 1 <= z.
Proof.
  intros o level z H1 H2. pose proof (total_size_ge_base o level z H1 H2). pose proof (total_base_pos o).
  split; [assumption | eapply Z.le_trans; eassumption].
Qed.

Lemma cache_capacity_nonneg : forall o, 0 <= GetBlockCacheCapacity o /\ 0 <= GetOpenFilesCacheCapacity o.
Proof. intro o. split; [apply block_cache_capacity_nonneg | apply open_files_capacity_nonneg]. Qed.

Lemma cache_negative_disables : forall o,
  (BlockCacheCapacity o < 0 -> GetBlockCacheCapacity (Some o) = 0) /\
  (OpenFilesCacheCapacity o < 0 -> GetOpenFilesCacheCapacity (Some o) = 0) /\
  (0 < BlockCacheCapacity o -> GetBlockCacheCapacity (Some o) = BlockCacheCapacity o) /\
  (0 < OpenFilesCacheCapacity o -> GetOpenFilesCacheCapacity (Some o) = OpenFilesCacheCapacity o).
Proof.
  intro o. repeat split; [apply block_cache_negative_disables | apply open_files_negative_disables
                          | apply block_cache_positive_kept | apply open_files_positive_kept].
Qed.

Lemma limit_factors_pos : forall o,
  1 <= factor_of o CompactionExpandLimitFactor opt_DefaultCompactionExpandLimitFactor /\
  1 <= factor_of o CompactionGPOverlapsFactor opt_DefaultCompactionGPOverlapsFactor /\
  1 <= factor_of o CompactionSourceLimitFactor opt_DefaultCompactionSourceLimitFactor.
Proof.
  intro o. repeat split; apply factor_pos;
    [apply dflt_expand_factor_pos | apply dflt_gp_factor_pos | apply dflt_source_factor_pos].
Qed.
