(* Iter/LiveProofs.v — facts about the SPEC list live_pairs (Iter/DBIter.v): decomposition over
   splits of the entry list, keys strictly increasing, declarative characterisation of membership
   (the newest visible entry of the user key is a value).  Also cmp_ord_ok / icmp_ord_ok: a comparer_ok
   comparer and its internal-key order are orders in the cursor's sense (ord_ok), which every iterator proof
   of this directory starts from. *)
From GL Require Import Base.OrderProofs Codec.IKeyProofs Iter.CursorProofs Iter.DBIter.
From GL Require Mem.ListLemmas.
From Coq Require Import Lia.
Close Scope N_scope.

Section Live.
  Variable c : comparer.
  Hypothesis ok : comparer_ok c.
  Variable p : kparams.
  Variable s : N.

  Notation ukey e := (uk (fst e)).
  Notation vis := (visible s).
  Notation isval := (is_val p).
  Notation lf := (live_from c p s).
  Notation esorted := (sorted_kv (icmp c)).

  Lemma cmp_ord_ok : ord_ok (cmp c).
  Proof. constructor; [apply (cmp_eq c ok)|apply (cmp_opp c ok)|apply (cmp_trans c ok)]. Qed.

  Lemma icmp_ord_ok : ord_ok (icmp c).
  Proof. constructor; [apply (icmp_eq c ok)|apply (icmp_opp c ok)|apply (icmp_trans c ok)]. Qed.

  Lemma icmp_lt_ukey_le a b : icmp c a b = Lt -> cmp c (uk a) (uk b) <> Gt.
  Proof. unfold icmp. destruct (cmp c (uk a) (uk b)); congruence. Qed.

  Lemma esorted_cons_ukey (e : entry) l : esorted (e :: l) -> forall x, In x l -> cmp c (ukey e) (ukey x) <> Gt.
  Proof.
    intros H x Hx. apply (sorted_cons_inv (icmp c)) in H as [_ F].
    rewrite Forall_forall in F. apply icmp_lt_ukey_le. apply F. exact Hx.
  Qed.

  Lemma esorted_app_ukey (l1 l2 : list entry) : esorted (l1 ++ l2) ->
    forall a b, In a l1 -> In b l2 -> cmp c (ukey a) (ukey b) <> Gt.
  Proof.
    intros H a b Ha Hb. apply (sorted_app_inv (icmp c)) in H as (_ & _ & H).
    apply icmp_lt_ukey_le. apply H; assumption.
  Qed.

  Lemma same_ukey_true sk u : same_ukey c sk u = true <-> sk = Some u.
  Proof.
    unfold same_ukey. destruct sk as [k|]; [|split; discriminate].
    destruct (cmp c u k) eqn:E.
    - split; [intros _; apply (cmp_eq c ok) in E; congruence|reflexivity].
    - split; [discriminate|]. intros H. injection H as H. subst k. rewrite (cmp_refl c ok) in E. discriminate.
    - split; [discriminate|]. intros H. injection H as H. subst k. rewrite (cmp_refl c ok) in E. discriminate.
  Qed.

  Lemma same_ukey_false sk u : same_ukey c sk u = false <-> sk <> Some u.
  Proof.
    rewrite <- same_ukey_true. destruct (same_ukey c sk u); split; congruence.
  Qed.

  (* the scan state after a prefix: user key of the last visible entry *)
  Definition skip_after (sk : option bytes) (l : list entry) : option bytes :=
    fold_left (fun sk e => if vis e then Some (ukey e) else sk) l sk.

  Lemma skip_after_app sk l1 l2 : skip_after sk (l1 ++ l2) = skip_after (skip_after sk l1) l2.
  Proof. apply fold_left_app. Qed.

  Lemma skip_after_cases sk l : skip_after sk l = sk \/ exists x, In x l /\ vis x = true /\ skip_after sk l = Some (ukey x).
  Proof.
    revert sk. induction l as [|e l IH]; intros sk; cbn; [left; reflexivity|].
    destruct (vis e) eqn:Ev.
    - destruct (IH (Some (ukey e))) as [H|(x & Hx & Hv & H)].
      + right. exists e. split; [left; reflexivity|]. split; assumption.
      + right. exists x. split; [right; assumption|]. split; assumption.
    - destruct (IH sk) as [H|(x & Hx & Hv & H)]; [left; assumption|].
      right. exists x. split; [right; assumption|]. split; assumption.
  Qed.

  Lemma live_app sk l1 l2 : lf sk (l1 ++ l2) = lf sk l1 ++ lf (skip_after sk l1) l2.
  Proof.
    revert sk. induction l1 as [|e l1 IH]; intros sk; cbn; [reflexivity|].
    destruct (vis e) eqn:Ev.
    - destruct (same_ukey c sk (ukey e)) eqn:Es.
      + apply same_ukey_true in Es. rewrite <- Es. apply IH.
      + destruct (isval e); cbn; rewrite IH; reflexivity.
    - apply IH.
  Qed.

  (* two scan states that treat every visible entry of l alike give the same list *)
  Lemma live_indep sk sk' l :
    (forall e, In e l -> vis e = true -> same_ukey c sk (ukey e) = same_ukey c sk' (ukey e)) ->
    lf sk l = lf sk' l.
  Proof.
    revert sk sk'. induction l as [|e l IH]; intros sk sk' H; cbn; [reflexivity|].
    destruct (vis e) eqn:Ev.
    - rewrite <- (H e (or_introl eq_refl) Ev).
      destruct (same_ukey c sk (ukey e)) eqn:Es.
      + apply IH. intros x Hx Hv. apply H; [right; assumption|assumption].
      + reflexivity.
    - apply IH. intros x Hx Hv. apply H; [right; assumption|assumption].
  Qed.

  (* a split between different visible user keys splits the scan *)
  Lemma lf_split l1 l2 :
    (forall x y, In x l1 -> In y l2 -> vis x = true -> vis y = true -> cmp c (ukey x) (ukey y) = Lt) ->
    lf None (l1 ++ l2) = lf None l1 ++ lf None l2.
  Proof.
    intros H. rewrite live_app. f_equal. apply live_indep. intros e He Hv. cbn.
    destruct (skip_after_cases None l1) as [->|(x & Hx & Hvx & ->)]; [reflexivity|].
    apply same_ukey_false. intros E. injection E as E.
    specialize (H x e Hx He Hvx Hv). rewrite E, (cmp_refl c ok) in H. discriminate.
  Qed.

  Lemma lf_split_at A B k : esorted A ->
    (A = [] \/ exists A0 x, A = A0 ++ [x] /\ vis x = true /\ cmp c (ukey x) k = Lt) ->
    (forall y, In y B -> vis y = true -> cmp c (ukey y) k <> Lt) ->
    lf None (A ++ B) = lf None A ++ lf None B.
  Proof.
    intros Hs HA HB. apply lf_split. intros x y Hx Hy Hvx Hvy.
    destruct HA as [->|(A0 & x0 & -> & Hv0 & Hlt0)]; [destruct Hx|].
    assert (Hxx0 : cmp c (ukey x) (ukey x0) <> Gt).
    { apply in_app_or in Hx as [Hx|[<-|[]]]; [|rewrite (cmp_refl c ok); discriminate].
      apply (esorted_app_ukey A0 [x0] Hs x x0 Hx). left. reflexivity. }
    apply (OrderProofs.le_lt_trans c ok _ (ukey x0)); [exact Hxx0|]. apply (OrderProofs.lt_le_trans c ok _ k); [exact Hlt0|].
    apply (OrderProofs.not_lt_le c ok). apply HB; assumption.
  Qed.

  Lemma live_invisible sk l : (forall e, In e l -> vis e = false) -> lf sk l = [].
  Proof.
    revert sk. induction l as [|e l IH]; intros sk H; cbn; [reflexivity|].
    rewrite (H e (or_introl eq_refl)). apply IH. intros x Hx. apply H. right. exact Hx.
  Qed.

  Lemma skip_after_invisible sk l : (forall e, In e l -> vis e = false) -> skip_after sk l = sk.
  Proof.
    revert sk. induction l as [|e l IH]; intros sk H; cbn; [reflexivity|].
    rewrite (H e (or_introl eq_refl)). apply IH. intros x Hx. apply H. right. exact Hx.
  Qed.

  (* every pair comes from a visible value entry *)
  Lemma live_in sk l k v : In (k, v) (lf sk l) ->
    exists e, In e l /\ vis e = true /\ isval e = true /\ k = ukey e /\ v = snd e.
  Proof.
    revert sk. induction l as [|e l IH]; intros sk; cbn; [intros []|].
    destruct (vis e) eqn:Ev.
    - destruct (same_ukey c sk (ukey e)).
      + intros H. destruct (IH _ H) as (x & Hx & R). exists x. split; [right; assumption|assumption].
      + destruct (isval e) eqn:Evl.
        * intros [H|H].
          -- injection H as <- <-. exists e. split; [left; reflexivity|]. repeat split; auto.
          -- destruct (IH _ H) as (x & Hx & R). exists x. split; [right; assumption|assumption].
        * intros H. destruct (IH _ H) as (x & Hx & R). exists x. split; [right; assumption|assumption].
    - intros H. destruct (IH _ H) as (x & Hx & R). exists x. split; [right; assumption|assumption].
  Qed.

  (* a scan started "inside" user key u differs from a fresh one by at most the head pair *)
  Lemma live_prefix sk l : exists pre, lf None l = pre ++ lf sk l /\ length pre <= 1.
  Proof.
    revert sk. induction l as [|e l IH]; intros sk; cbn.
    - exists []. split; [reflexivity|cbn; lia].
    - destruct (vis e) eqn:Ev.
      + destruct (same_ukey c sk (ukey e)) eqn:Es.
        * apply same_ukey_true in Es. subst sk.
          destruct (isval e).
          -- exists [(ukey e, snd e)]. split; [reflexivity|cbn; lia].
          -- exists []. split; [reflexivity|cbn; lia].
        * exists []. split; [reflexivity|cbn; lia].
      + apply IH.
  Qed.

  (* lower bound of a scan state: every visible entry has user key >= the state's key *)
  Definition lower_ok (sk : option bytes) (l : list entry) : Prop :=
    forall k, sk = Some k -> forall e, In e l -> vis e = true -> cmp c (ukey e) k <> Lt.

  Lemma lower_ok_tail sk e l : lower_ok sk (e :: l) -> lower_ok sk l.
  Proof. intros H k Hk x Hx. apply (H k Hk). right. exact Hx. Qed.

  Lemma lower_ok_sorted e l : esorted (e :: l) -> lower_ok (Some (ukey e)) l.
  Proof.
    intros Hs k Hk x Hx _. injection Hk as <-.
    apply (f_not_lt_le (cmp c) cmp_ord_ok). apply (esorted_cons_ukey e l Hs x Hx).
  Qed.

  (* keys produced by a scan started at state (Some u) are strictly greater than u *)
  Lemma live_keys_gt l : forall u, esorted l -> lower_ok (Some u) l ->
    forall k v, In (k, v) (lf (Some u) l) -> cmp c u k = Lt.
  Proof.
    induction l as [|e l IH]; intros u Hs Hl k v; cbn; [intros []|].
    pose proof (sorted_cons_inv (icmp c) e l Hs) as [Hs' _].
    destruct (vis e) eqn:Ev.
    - assert (Hge : cmp c (ukey e) u <> Lt) by (apply (Hl u eq_refl e (or_introl eq_refl) Ev)).
      destruct (match cmp c (ukey e) u with Eq => true | _ => false end) eqn:Es.
      + apply IH; auto. eapply lower_ok_tail; eauto.
      + assert (Hgt : cmp c u (ukey e) = Lt).
        { destruct (f_ge_cases (cmp c) cmp_ord_ok _ _ Hge) as [E|E]; auto.
          rewrite E, (cmp_refl c ok) in Es. discriminate. }
        assert (Hrec : forall k v, In (k, v) (lf (Some (ukey e)) l) -> cmp c u k = Lt).
        { intros k' v' H. eapply (cmp_trans c ok); [exact Hgt|].
          eapply IH; eauto. apply lower_ok_sorted. exact Hs. }
        destruct (isval e).
        * intros [H|H]; [injection H as <- <-; exact Hgt|eapply Hrec; eauto].
        * intros H. eapply Hrec; eauto.
    - apply IH; auto. eapply lower_ok_tail; eauto.
  Qed.

  Lemma live_sorted l : forall sk, esorted l -> lower_ok sk l -> sorted_kv (cmp c) (lf sk l).
  Proof.
    induction l as [|e l IH]; intros sk Hs Hl; cbn; [constructor|].
    pose proof (sorted_cons_inv (icmp c) e l Hs) as [Hs' _].
    destruct (vis e) eqn:Ev.
    - destruct (same_ukey c sk (ukey e)) eqn:Es.
      + apply IH; auto. intros k Hk x Hx. apply (Hl k Hk). right; exact Hx.
      + destruct (isval e).
        * constructor; [apply IH; auto; apply lower_ok_sorted; exact Hs|].
          rewrite Forall_forall. intros [k v] H. unfold kv_lt; cbn.
          eapply live_keys_gt; eauto. apply lower_ok_sorted; exact Hs.
        * apply IH; auto. apply lower_ok_sorted; exact Hs.
    - apply IH; auto. intros k Hk x Hx. apply (Hl k Hk). right; exact Hx.
  Qed.

  Lemma lower_ok_none l : lower_ok None l.
  Proof. intros k Hk. discriminate. Qed.

  Theorem live_pairs_sorted l : esorted l -> sorted_kv (cmp c) (live_pairs c p s l).
  Proof. intros H. apply live_sorted; [exact H|apply lower_ok_none]. Qed.

  Lemma live_keys_ge_head sk e l k v : esorted (e :: l) -> In (k, v) (lf sk (e :: l)) -> cmp c (ukey e) k <> Gt.
  Proof.
    intros Hs H. apply live_in in H as (x & [<-|Hx] & _ & _ & -> & _).
    - rewrite (cmp_refl c ok). discriminate.
    - apply (esorted_cons_ukey e l Hs x Hx).
  Qed.

  Notation newest := (newest_visible c s).

  Lemma find_app_none {A} (f : A -> bool) l1 l2 : find f l1 = None -> find f (l1 ++ l2) = find f l2.
  Proof. induction l1 as [|x l1 IH]; cbn; auto. destruct (f x); [discriminate|auto]. Qed.

  (* pairs of a scan in state sk: the user keys other than sk's whose newest visible entry is a value *)
  Lemma live_from_spec l : forall sk, esorted l -> lower_ok sk l -> forall u v,
    In (u, v) (lf sk l) <->
    (sk <> Some u /\ exists e, newest l u = Some e /\ isval e = true /\ v = snd e).
  Proof.
    induction l as [|e l IH]; intros sk Hs Hl u v; cbn.
    - split; [intros []|]. intros (_ & e & H & _). discriminate.
    - pose proof (sorted_cons_inv (icmp c) e l Hs) as [Hs' _].
      assert (Hl' : lower_ok sk l) by (eapply lower_ok_tail; eauto).
      assert (Hle : lower_ok (Some (ukey e)) l) by (apply lower_ok_sorted; exact Hs).
      destruct (vis e) eqn:Ev; cbn.
      + destruct (cmp c (ukey e) u) eqn:Eu.
        * (* e is the newest visible entry of u *)
          apply (cmp_eq c ok) in Eu. subst u.
          destruct (same_ukey c sk (ukey e)) eqn:Es.
          -- apply same_ukey_true in Es. rewrite IH by auto. split; [intros [H _]; congruence|intros [H _]; congruence].
          -- apply same_ukey_false in Es.
             assert (Hno : forall v', ~ In (ukey e, v') (lf (Some (ukey e)) l)).
             { intros v' H. apply (live_keys_gt l (ukey e) Hs' Hle) in H. rewrite (cmp_refl c ok) in H. discriminate. }
             destruct (isval e) eqn:Evl.
             ++ split.
                ** intros [H|H]; [injection H as <-|exfalso; eapply Hno; eauto].
                   split; [exact Es|]. exists e. auto.
                ** intros (_ & x & Hx & _ & ->). injection Hx as <-. left. reflexivity.
             ++ split; [intros H; exfalso; eapply Hno; eauto|].
                intros (_ & x & Hx & Hv & _). injection Hx as <-. congruence.
        * (* ukey e < u: e does not matter for u *)
          assert (Hne : Some (ukey e) <> Some u).
          { intros H. injection H as H. rewrite H, (cmp_refl c ok) in Eu. discriminate. }
          destruct (same_ukey c sk (ukey e)) eqn:Es.
          -- apply same_ukey_true in Es. rewrite IH by auto. subst sk. tauto.
          -- assert (Hsk : sk <> Some u).
             { intros ->. specialize (Hl u eq_refl e (or_introl eq_refl) Ev). congruence. }
             destruct (isval e).
             ++ cbn. rewrite IH by auto. split.
                ** intros [H|H]; [injection H as H _; rewrite H, (cmp_refl c ok) in Eu; discriminate|].
                   split; [exact Hsk|tauto].
                ** intros [_ H]. right. split; [exact Hne|exact H].
             ++ rewrite IH by auto. split; [intros [_ H]; split; [exact Hsk|exact H]|intros [_ H]; split; [exact Hne|exact H]].
        * (* ukey e > u: u has no entry at all from here on *)
          assert (Hnone : newest l u = None).
          { unfold newest_visible. apply ListLemmas.find_none_intro. intros x Hx.
            pose proof (esorted_cons_ukey e l Hs x Hx) as Hex.
            destruct (cmp c (ukey x) u) eqn:Exu; try (rewrite andb_false_r; reflexivity).
            apply (cmp_eq c ok) in Exu. subst u. congruence. }
          unfold newest_visible in Hnone. rewrite Hnone.
          assert (Hnot : forall sk', lower_ok sk' (e :: l) -> ~ In (u, v) (lf sk' (e :: l))).
          { intros sk' _ H. apply (live_keys_ge_head sk' e l u v Hs) in H.
            apply (cmp_gt_lt c ok) in Eu. apply (cmp_lt_gt c ok) in Eu. congruence. }
          specialize (Hnot sk Hl). cbn in Hnot. rewrite Ev in Hnot.
          split; [intros H; exfalso; apply Hnot; exact H|]. intros (_ & x & Hx & _). discriminate.
      + rewrite IH by auto. reflexivity.
  Qed.

  (* (u, v) is live iff the newest entry of u with seq <= s is a value carrying v *)
  Theorem live_pairs_spec l : esorted l -> forall u v,
    In (u, v) (live_pairs c p s l) <-> exists e, newest l u = Some e /\ isval e = true /\ v = snd e.
  Proof.
    intros Hs u v. unfold live_pairs. rewrite (live_from_spec l None Hs (lower_ok_none l)).
    split; [intros [_ H]; exact H|intros H; split; [discriminate|exact H]].
  Qed.
End Live.
