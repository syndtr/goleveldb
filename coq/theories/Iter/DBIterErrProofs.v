(* Iter/DBIterErrProofs.v — dbIter with its error handling (Iter/IterErr.v, the de_ machine; goleveldb with
   the repair 35e2053) over a raw iterator that behaves
   like a cursor until it FAILS (a fuse: its n-th call returns false with an error and it stays failed):
   for every call sequence - forward, backward, mixed - the outputs are exactly those of the cursor over the
   live pairs up to the call during which the raw iterator fails, and (false, nil, nil) with an error recorded
   from that call on.  It stops, and it never shows a pair that is not the live pair of its key.
   Shape: the error-aware machine over the fused raw iterator runs in lock step (Iter/DBIterCong.v, Section
   LockStep) with the error-free machine (Iter/DBIter.v) over the ideal raw iterator as long as the fuse
   holds; every loop of dbIter tests the raw iterator after each of its calls, so the call during which the fuse burns ends in a result whose raw
   iterator is failed, which de_post turns into setErr / false - also on the exit of prev() below its loop
   (what 35e2053 repairs).  Then dbiter_refines (Iter/DBIterProofs.v) for the ideal run. *)
From GL Require Import Iter.DBIterProofs Iter.DBIterCong Iter.IterErr Iter.IterErrProofs.
Close Scope N_scope.

Section DBPrefix.
  Variable c : comparer.
  Variable p : kparams.
  Variable C : Type.
  Variable chstep : C -> move ikey -> C.
  Variable chobs : C -> option entry.
  Variable seq : N.
  Variable strict : bool.

  Notation F := (fchild C).
  Notation fstep := (f_step chstep).
  Notation fobs := (f_obs chobs).

  (* in step: the fused raw iterator is alive and wraps the ideal one; the escape: it has failed *)
  Definition alive_over (x : F) (y : C) : Prop := fc_dead x = false /\ fc_in x = y.
  Definition failed (x : F) : Prop := fc_dead x = true.

  Notation srelA := (srel F C alive_over).
  Notation rrelA := (rrel F C alive_over failed).

  Lemma step_A f sF sC m : srelA sF sC ->
    rrelA (db_step c p F fstep fobs seq strict f sF m) (db_step c p C chstep chobs seq strict f sC m).
  Proof.
    intros H. apply (step_lock c p F C fstep fobs chstep chobs seq strict alive_over failed (fun _ => True)); auto.
    - intros x y [Ha <-]. apply fobs_alive, Ha.
    - intros x y m' [Ha <-] _. unfold alive_over, failed, f_step. rewrite Ha. destruct (fc_fuse x) as [[|n]|]; cbn; auto.
    - apply fobs_dead_none.
    - destruct m as [| |k| |]; try exact I. unfold umove_ok, ukey_ok. destruct (make_ikey p k seq (keyTypeSeek p)); exact I.
  Qed.

  Notation DE := (destate F).
  Notation demove := (de_move c p F fstep fobs f_err seq strict).

  Definition R (se : DE) (sC : dbstate C) : Prop :=
    de_err se = None /\ de_released se = false /\ srelA (de_base se) sC.

  Lemma de_post_alive se (sF : dbstate F) b : de_err se = None -> fc_dead (d_child sF) = false ->
    de_post fobs f_err se (Ok sF b) = DEOk (mkDE sF None false (de_releaser se)) b \/
    (exists se' e, de_post fobs f_err se (Ok sF b) = DEOk se' false /\ de_err se' = Some e).
  Proof.
    intros He Ha. assert (Ece : f_err (d_child sF) = None) by (unfold f_err; rewrite Ha; reflexivity).
    unfold de_post. rewrite Ece, He. destruct b.
    - left. destruct (is_some _); reflexivity.
    - destruct (d_err sF); [right; eexists _, ECorrupt; split; reflexivity|left; reflexivity].
  Qed.

  Lemma de_post_failed se (sF : dbstate F) b : fc_dead (d_child sF) = true ->
    exists se' e, de_post fobs f_err se (Ok sF b) = DEOk se' false /\ de_err se' = Some e.
  Proof.
    intros Hd. unfold de_post, f_err. rewrite (fobs_dead_none _ _ _ _ _ Hd), Hd. cbn [is_some].
    destruct b; [|destruct (d_err sF)]; eexists _, _; split; reflexivity.
  Qed.

  Lemma de_step_sim f se sC m sC' ret : R se sC -> db_step c p C chstep chobs seq strict f sC m = Ok sC' ret ->
    (exists se', demove f se m = DEOk se' ret /\ R se' sC' /\ de_kv se' = db_kv sC') \/
    (exists se' e, demove f se m = DEOk se' false /\ de_err se' = Some e).
  Proof.
    intros HR Hm. pose proof HR as (He & Hr & HA). unfold de_move, de_move_with. rewrite He, Hr.
    assert (Ed : d_dir (de_base se) = d_dir sC) by apply HA.
    (* the guards of Next at dirEOI and of Prev at dirSOI: neither side moves *)
    assert (Gstay : Ok sC false = Ok sC' ret ->
              exists se', DEOk se false = DEOk se' ret /\ R se' sC' /\ de_kv se' = db_kv sC').
    { intros E. injection E as <- <-. exists se. split; [reflexivity|]. split; [exact HR|].
      unfold de_kv, de_dead. rewrite He, Hr. exact (srel_db_kv _ _ _ _ _ HA). }
    assert (G : (exists se', de_post fobs f_err se (db_step c p F fstep fobs seq strict f (de_base se) m) = DEOk se' ret /\
                             R se' sC' /\ de_kv se' = db_kv sC') \/
                (exists se' e, de_post fobs f_err se (db_step c p F fstep fobs seq strict f (de_base se) m) = DEOk se' false /\
                               de_err se' = Some e)).
    { pose proof (step_A f (de_base se) sC m HA) as HS. rewrite Hm in HS.
      destruct (db_step c p F fstep fobs seq strict f (de_base se) m) as [sF b| |];
        inversion HS as [? ? ? HA'|? ? ? Hd| |]; subst.
      - destruct (de_post_alive se sF ret He (proj1 (proj1 HA'))) as [E|E]; [left|right; exact E].
        eexists. split; [exact E|]. split; [split; [reflexivity|split; [reflexivity|exact HA']]|].
        exact (srel_db_kv _ _ _ _ _ HA').
      - right. apply de_post_failed, Hd. }
    destruct m; try exact G; rewrite Ed; destruct (d_dir sC) eqn:E; try exact G;
      left; apply Gstay; rewrite <- Hm; cbn [db_step].
    - unfold db_next. rewrite E. reflexivity.
    - unfold db_prev. rewrite E. reflexivity.
  Qed.

  Notation derun := (de_run c p F fstep fobs f_err seq strict).

  Lemma de_run_sim f : forall ms se sC outs, R se sC -> db_run c p C chstep chobs seq strict f sC ms = Some outs ->
    exists eouts j e, derun f se (map CMove ms) = Some eouts /\ degraded bytes bytes (length ms) outs eouts j e.
  Proof.
    induction ms as [|m ms IH]; intros se sC outs HR Hm.
    - cbn in Hm. injection Hm as <-. exists [], 0, EOther. split; [reflexivity|apply degraded_nil].
    - cbn [db_run] in Hm. destruct (db_step c p C chstep chobs seq strict f sC m) as [sC' ret| |] eqn:Es; try discriminate.
      destruct (db_run c p C chstep chobs seq strict f sC' ms) as [o|] eqn:Er; [|discriminate]. injection Hm as <-.
      destruct (de_step_sim f se sC m sC' ret HR Es) as [(se' & E & HR' & Ekv)|(se' & e & E & Ee)].
      + destruct (IH se' sC' o HR' Er) as (eouts & j & e & Erun & Hd).
        exists (de_out se' ret :: eouts), (S j), e. split.
        * unfold de_run in *. cbn [map de_run_with]. fold (de_move c p F fstep fobs f_err seq strict). rewrite E, Erun. reflexivity.
        * rewrite <- Ekv. apply (degraded_cons _ _ _ _ _ _ _ (de_out se' ret) Hd). apply HR'.
      + exists (de_out se' false :: map (fun _ => ddead_out e) ms), 0, e. split.
        * unfold de_run. cbn [map de_run_with]. fold (de_move c p F fstep fobs f_err seq strict). rewrite E.
          fold (de_run c p F fstep fobs f_err seq strict).
          rewrite (de_error_stops c p F fstep fobs f_err seq strict f se' e ms Ee). reflexivity.
        * apply (degraded_dead bytes bytes ms); unfold proj, de_out, de_kv, de_valid, de_dead; cbn; rewrite Ee; reflexivity.
  Qed.
End DBPrefix.

(* The raw iterator behaves like a cursor over the strictly icmp-sorted, well-formed internal entries l
   until its fuse burns; whatever the kind of its error (dbIter records every error of its raw iterator).
   j = length ms: the fuse did not burn during ms, and e says nothing. *)
Theorem dbiter_error_prefix (c : comparer) (p : kparams) (C : Type) (chstep : C -> move ikey -> C)
  (chobs : C -> option entry) (seq : N) (strict : bool) (l : list entry) (fuel : nat) (raw : fchild C) :
  comparer_ok c -> dbparams_ok p -> (seq <= keyMaxSeq p)%N ->
  sorted_kv (icmp c) l -> Forall (entry_wf p) l -> length l < fuel ->
  refines (icmp c) chstep chobs (fc_in raw) l -> fc_dead raw = false ->
  forall ms, exists eouts j e,
    de_run c p (fchild C) (f_step chstep) (f_obs chobs) f_err seq strict fuel (de_init raw) (map CMove ms) = Some eouts /\
    degraded bytes bytes (length ms) (run_cursor (cmp c) (live_pairs c p seq l) ms) eouts j e.
Proof.
  intros ok dpok Hseq Hs Hwf Hf Href Hal ms.
  apply (de_run_sim c p C chstep chobs seq strict fuel ms (de_init raw) (db_init (fc_in raw))).
  - split; [reflexivity|]. split; [reflexivity|]. repeat split; auto.
  - apply (dbiter_refines c p C chstep chobs seq strict l fuel (fc_in raw)); assumption.
Qed.
