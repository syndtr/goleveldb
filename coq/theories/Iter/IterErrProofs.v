(* Iter/IterErrProofs.v — errors and release (proof file for Iter/IterErr.v):
   (1) once an iterator has recorded an error every movement call returns false, shows nothing, and keeps
       the error (merged, indexed, dbIter);
   (2) after Release every movement call returns false and shows nothing, and Error() is ErrIterReleased
       (unless an earlier error was recorded: that one is kept);
   (3) SetReleaser with a second non-nil releaser, or after Release, panics;
   (4) the merged iterator over children that behave like cursors until one of them fails with a halting
       error: the outputs are those of the cursor over the merge up to the failing call, and (false, nil, nil)
       from then on, with the child's error recorded - it stops, and never shows a pair out of place;
   (5) dbIter: a call that returns false after moving a raw iterator that has an error leaves an error recorded.
   The counterpart of (4) for dbIter over a failing raw iterator is Iter/DBIterErrProofs.v. *)
From GL Require Import Iter.MergedProofs Iter.IterErr.
From Coq Require Import Lia Arith.
Close Scope N_scope.

Section MergedErrFacts.
  Variables K V C : Type.
  Variable chstep : C -> move K -> C.
  Variable chobs : C -> option (K * V).
  Variable cherr : C -> option ierr.
  Variable pop : list (option K) -> bool -> list nat -> option (nat * list nat).
  Variable strict : bool.

  Notation move_ := (me_move K V C chstep chobs cherr pop strict).
  Notation run_ := (me_run K V C chstep chobs cherr pop strict).
  Notation kv_ := (me_kv chobs).
  Notation valid_ := (@me_valid K C).

  Lemma me_error_sticky s e m : me_err s = Some e ->
    move_ s m = Some (s, false) /\ kv_ s = None /\ valid_ s = false.
  Proof.
    intros H. unfold me_move, me_kv, me_valid, me_dead. rewrite H. cbn. auto.
  Qed.

  Definition dead_out (e : ierr) : eout K V := mkEO false None false (Some e).

  Theorem me_error_stops s e ms : me_err s = Some e ->
    run_ s (map CMove ms) = Some (map (fun _ => dead_out e) ms).
  Proof.
    intros H. induction ms as [|m ms IH]; [reflexivity|]. cbn [map me_run me_call].
    destruct (me_error_sticky s e m H) as (E & Ek & Ev). rewrite E, IH.
    unfold me_out, dead_out. rewrite Ek, Ev, H. reflexivity.
  Qed.

  (* what Error() says after Release and one more call *)
  Definition err_after_release (old : option ierr) : ierr := match old with Some e => e | None => EReleased end.

  Theorem me_after_release s ms :
    run_ (me_release s) (map CMove ms) = Some (map (fun _ => dead_out (err_after_release (me_err s))) ms).
  Proof.
    destruct ms as [|m ms]; [reflexivity|].
    destruct (me_err s) as [e|] eqn:E.
    - apply (me_error_stops (me_release s) e (m :: ms)). exact E.
    - cbn [map me_run me_call err_after_release]. unfold me_move at 1. cbn [me_release me_err me_released]. rewrite E.
      rewrite (me_error_stops _ EReleased ms) by reflexivity.
      unfold me_out, me_kv, me_valid, me_dead, dead_out. cbn. reflexivity.
  Qed.

  Theorem me_set_releaser_twice (s s1 : mestate K C) : me_set_releaser s true = Some s1 -> me_set_releaser s1 true = None.
  Proof.
    unfold me_set_releaser. destruct (me_released s); [discriminate|].
    destruct (me_releaser s && true); [discriminate|]. intros H. injection H as <-. reflexivity.
  Qed.

  Theorem me_set_releaser_after_release (s : mestate K C) r : me_set_releaser (me_release s) r = None.
  Proof. reflexivity. Qed.
End MergedErrFacts.

Section IndexedErrFacts.
  Variables K V D I C : Type.
  Variable istep : I -> move K -> I.
  Variable iobs : I -> option (K * D).
  Variable ierr_of : I -> option ierr.
  Variable mk : D -> C.
  Variable dstep : C -> move K -> C.
  Variable dobs : C -> option (K * V).
  Variable derr : C -> option ierr.
  Variable strict : bool.

  Notation move_ := (xe_move K V D I C istep iobs ierr_of mk dstep dobs derr strict).
  Notation run_ := (xe_run K V D I C istep iobs ierr_of mk dstep dobs derr strict).

  Lemma xe_error_sticky fuel s e m : xe_err s = Some e -> move_ fuel s m = XEOk s false.
  Proof. intros H. unfold xe_move. rewrite H. reflexivity. Qed.

  (* Valid/Key/Value of an indexed iterator are those of its data iterator: after an error they stay what
     they were (the data iterator whose call failed shows nothing); the returned bool is false for ever *)
  Theorem xe_error_stops fuel s e ms : xe_err s = Some e ->
    run_ fuel s (map CMove ms) = Some (map (fun _ => xe_out ierr_of dobs s false) ms).
  Proof.
    intros H. induction ms as [|m ms IH]; [reflexivity|]. cbn [map xe_run].
    rewrite (xe_error_sticky fuel s e m H), IH. reflexivity.
  Qed.

  Theorem xe_after_release fuel s ms :
    run_ fuel (xe_release s) (map CMove ms) =
    Some (map (fun _ => mkEO false None false (Some (err_after_release (xe_err s)))) ms).
  Proof.
    destruct ms as [|m ms]; [reflexivity|].
    destruct (xe_err s) as [e|] eqn:E.
    - rewrite (xe_error_stops fuel (xe_release s) e (m :: ms)) by exact E.
      f_equal. apply map_ext. intros _. unfold xe_out, xe_kv, xe_valid, xe_error, x_kv, xe_release. cbn. rewrite E. reflexivity.
    - cbn [map xe_run err_after_release]. unfold xe_move at 1. cbn [xe_release xe_err xe_released]. rewrite E.
      rewrite (xe_error_stops fuel _ EReleased ms) by reflexivity.
      unfold xe_out, xe_kv, xe_valid, xe_error, x_kv. cbn. reflexivity.
  Qed.

  Theorem xe_set_releaser_twice (s s1 : xestate I C) : xe_set_releaser s true = Some s1 -> xe_set_releaser s1 true = None.
  Proof.
    unfold xe_set_releaser. destruct (xe_released s); [discriminate|].
    destruct (xe_releaser s && true); [discriminate|]. intros H. injection H as <-. reflexivity.
  Qed.

  Theorem xe_set_releaser_after_release (s : xestate I C) r : xe_set_releaser (xe_release s) r = None.
  Proof. reflexivity. Qed.
End IndexedErrFacts.

Section DBIterErrFacts.
  Variable c : comparer.
  Variable p : kparams.
  Variable C : Type.
  Variable chstep : C -> move ikey -> C.
  Variable chobs : C -> option entry.
  Variable cherr : C -> option ierr.
  Variable seq : N.
  Variable strict : bool.

  Notation move_ := (de_move c p C chstep chobs cherr seq strict).
  Notation run_ := (de_run c p C chstep chobs cherr seq strict).

  Lemma de_error_sticky fuel s e m : de_err s = Some e -> move_ fuel s m = DEOk s false.
  Proof. intros H. unfold de_move, de_move_with. rewrite H. reflexivity. Qed.

  Definition ddead_out (e : ierr) : eout bytes bytes := mkEO false None false (Some e).

  Theorem de_error_stops fuel s e ms : de_err s = Some e ->
    run_ fuel s (map CMove ms) = Some (map (fun _ => ddead_out e) ms).
  Proof.
    intros H. unfold de_run in *. induction ms as [|m ms IH]; [reflexivity|]. cbn [map de_run_with].
    fold (de_move c p C chstep chobs cherr seq strict). rewrite (de_error_sticky fuel s e m H), IH.
    unfold de_out, de_kv, de_valid, de_dead, ddead_out. rewrite H. reflexivity.
  Qed.

  Theorem de_after_release fuel s ms :
    run_ fuel (de_release s) (map CMove ms) = Some (map (fun _ => ddead_out (err_after_release (de_err s))) ms).
  Proof.
    destruct ms as [|m ms]; [reflexivity|].
    destruct (de_err s) as [e|] eqn:E.
    - apply (de_error_stops fuel (de_release s) e (m :: ms)). exact E.
    - unfold de_run. cbn [map de_run_with err_after_release]. unfold de_move_with at 1. cbn [de_release de_err de_released]. rewrite E.
      fold (de_run c p C chstep chobs cherr seq strict). rewrite (de_error_stops fuel _ EReleased ms) by reflexivity.
      unfold de_out, de_kv, de_valid, de_dead, ddead_out. cbn. reflexivity.
  Qed.

  Theorem de_set_releaser_twice (s s1 : destate C) : de_set_releaser s true = Some s1 -> de_set_releaser s1 true = None.
  Proof.
    unfold de_set_releaser. destruct (de_released s); [discriminate|].
    destruct (de_releaser s && true); [discriminate|]. intros H. injection H as <-. reflexivity.
  Qed.

  Theorem de_set_releaser_after_release (s : destate C) r : de_set_releaser (de_release s) r = None.
  Proof. reflexivity. Qed.

  (* a call that returns false after having moved the raw iterator leaves an error recorded whenever the raw
     iterator has one (the statement does not say it is that one) *)
  Theorem de_false_records_error fuel s m s' : de_err s = None -> de_released s = false ->
    move_ fuel s m = DEOk s' false ->
    (m = MNext /\ d_dir (de_base s) = DirEOI /\ s' = s) \/ (m = MPrev /\ d_dir (de_base s) = DirSOI /\ s' = s) \/
    match cherr (d_child (de_base s')) with
    | Some e => exists e', de_err s' = Some e'
    | None => True
    end.
  Proof.
    intros He Hr. unfold de_move, de_move_with. rewrite He, Hr.
    assert (G : forall r, de_post chobs cherr s r = DEOk s' false ->
              match cherr (d_child (de_base s')) with Some e => exists e', de_err s' = Some e' | None => True end).
    { intros r. unfold de_post. destruct r as [b [|]| |]; try discriminate.
      { destruct (is_some (chobs (d_child b))); [discriminate|].
        destruct (cherr (d_child b)) as [e|] eqn:Ec; [|discriminate]. intros H; injection H as <-.
        cbn [de_base de_err set_err d_child]. rewrite Ec. eexists; reflexivity. }
      destruct (d_err b) eqn:Eb.
      - intros H. injection H as <-. cbn. destruct (cherr (d_child b)); eauto.
      - destruct (cherr (d_child b)) as [e|] eqn:Ec; intros H; injection H as <-;
          cbn [de_base de_err set_err d_child]; rewrite Ec; [eexists; reflexivity|exact I]. }
    destruct m; try (intros H; right; right; apply (G _ H)).
    - destruct (d_dir (de_base s)) eqn:Ed; try (intros H; right; right; apply (G _ H)).
      intros H. injection H as <-. left. auto.
    - destruct (d_dir (de_base s)) eqn:Ed; try (intros H; right; right; apply (G _ H)).
      intros H. injection H as <-. right. left. auto.
  Qed.
End DBIterErrFacts.

Lemma list_eq_nth_error {A} : forall l1 l2 : list A, (forall j, nth_error l1 j = nth_error l2 j) -> l1 = l2.
Proof.
  induction l1 as [|x l1 IH]; intros [|y l2] H; [reflexivity|specialize (H 0); discriminate|specialize (H 0); discriminate|].
  pose proof (H 0) as H0. cbn in H0. injection H0 as ->. f_equal. apply IH. intros j. exact (H (S j)).
Qed.

Lemma drop_nth_in {A} (l : list A) : forall i j y, nth_error l j = Some y -> j <> i -> In y (drop_nth l i).
Proof.
  induction l as [|x l IH]; intros i j y Hj Hne; [destruct j; discriminate|].
  destruct i as [|i]; destruct j as [|j]; cbn in *.
  - congruence.
  - eapply nth_error_In; eauto.
  - injection Hj as ->. left. reflexivity.
  - right. apply (IH i j); [exact Hj|lia].
Qed.

Section MergedPrefix.
  Variables K V C : Type.
  Variable chstep : C -> move K -> C.
  Variable chobs : C -> option (K * V).
  Variable pop : list (option K) -> bool -> list nat -> option (nat * list nat).
  Variable strict : bool.

  Notation F := (fchild C).
  Notation fstep := (f_step chstep).
  Notation fobs := (f_obs chobs).
  Notation halt_ := (halt K V F fobs f_err strict).
  Notation scan_ := (scan K V F fobs f_err strict).

  (* alive, and of a kind that halts the merged iterator when it fires *)
  Definition alive_h (x : F) : Prop := fc_dead x = false /\ halting strict (fc_kind x) = true.

  Lemma fobs_alive x : fc_dead x = false -> fobs x = chobs (fc_in x).
  Proof. intros H. unfold f_obs. rewrite H. reflexivity. Qed.

  Lemma fobs_dead_none x : fc_dead x = true -> fobs x = None.
  Proof. intros H. unfold f_obs. rewrite H. reflexivity. Qed.

  Lemma fstep_kind x m : fc_kind (fstep x m) = fc_kind x.
  Proof. unfold f_step. destruct (fc_dead x); [reflexivity|]. destruct (fc_fuse x) as [[|n]|]; reflexivity. Qed.

  Lemma fstep_dead_sticky x m : fc_dead x = true -> fstep x m = x.
  Proof. intros H. unfold f_step. rewrite H. reflexivity. Qed.

  Lemma halt_dead x : halting strict (fc_kind x) = true -> fc_dead x = true -> halt_ x = Some (fc_kind x).
  Proof. intros Hh Hd. unfold halt, f_obs, f_err. rewrite Hd, Hh. reflexivity. Qed.

  Lemma halt_none_alive x : halting strict (fc_kind x) = true -> halt_ x = None -> fc_dead x = false.
  Proof. intros Hh Hn. destruct (fc_dead x) eqn:E; [|reflexivity]. rewrite (halt_dead x Hh E) in Hn. discriminate. Qed.

  Lemma fstep_alive x m : alive_h x -> halt_ (fstep x m) = None ->
    alive_h (fstep x m) /\ fc_in (fstep x m) = chstep (fc_in x) m.
  Proof.
    intros [Hd Hh] Hn.
    assert (Hh' : halting strict (fc_kind (fstep x m)) = true) by (rewrite fstep_kind; exact Hh).
    pose proof (halt_none_alive _ Hh' Hn) as Ha. split; [split; assumption|].
    unfold f_step in *. rewrite Hd in *. destruct (fc_fuse x) as [[|n]|]; cbn in *; try reflexivity. discriminate.
  Qed.

  Lemma fstep_die x m : alive_h x -> fc_dead (fstep x m) = true -> halt_ (fstep x m) = Some (fc_kind x).
  Proof.
    intros [Hd Hh] Hdead. rewrite <- (fstep_kind x m). apply halt_dead; [rewrite fstep_kind; exact Hh|exact Hdead].
  Qed.

  Lemma key_of_alive x : fc_dead x = false -> key_of K V F fobs x = key_of K V C chobs (fc_in x).
  Proof. intros H. unfold key_of. rewrite (fobs_alive x H). reflexivity. Qed.

  Lemma scan_none cs : scan_ cs = None <-> Forall (fun x => halt_ x = None) cs.
  Proof.
    induction cs as [|x cs IH]; cbn [scan]; [split; [constructor|reflexivity]|].
    destruct (halt_ x) eqn:E.
    - split; [discriminate|]. intros H. inversion H; congruence.
    - rewrite IH. split; [intros H; constructor; assumption|intros H; inversion H; assumption].
  Qed.

  Lemma map_step_alive xs m : Forall alive_h xs -> scan_ (map (fun x => fstep x m) xs) = None ->
    Forall alive_h (map (fun x => fstep x m) xs) /\
    map fc_in (map (fun x => fstep x m) xs) = map (fun c => chstep c m) (map fc_in xs).
  Proof.
    intros Ha Hs. apply scan_none in Hs. induction xs as [|x xs IH]; [split; [constructor|reflexivity]|].
    inversion Ha as [|? ? Hx Ha']; subst. cbn [map] in Hs. inversion Hs as [|? ? Hh Hs']; subst.
    destruct (fstep_alive x m Hx Hh) as [A1 A2]. destruct (IH Ha' Hs') as [B1 B2].
    split; [constructor; assumption|]. cbn [map]. rewrite A2, B2. reflexivity.
  Qed.

  Lemma map_key_of_alive xs : Forall alive_h xs -> map (key_of K V F fobs) xs = map (key_of K V C chobs) (map fc_in xs).
  Proof.
    induction 1 as [|x xs [Hd _] _ IH]; [reflexivity|]. cbn [map]. rewrite (key_of_alive x Hd), IH. reflexivity.
  Qed.

  Notation bF := (mstate K F).
  Notation bC := (mstate K C).

  (* the error-free machine's state is the fused one's with the fuses stripped, and every fuse is intact *)
  Definition strip (b : bF) : bC :=
    {| m_iters := map fc_in (m_iters b); m_keys := m_keys b; m_index := m_index b; m_dir := m_dir b;
       m_heap := m_heap b; m_rev := m_rev b |}.
  Definition PR (b : bF) (s : bC) : Prop := s = strip b /\ Forall alive_h (m_iters b).

  Lemma mstate_eq (s t : bC) : m_iters s = m_iters t -> m_keys s = m_keys t -> m_index s = m_index t ->
    m_dir s = m_dir t -> m_heap s = m_heap t -> m_rev s = m_rev t -> s = t.
  Proof. destruct s, t. cbn. intros; subst; reflexivity. Qed.

  Lemma PR_next_ b s : PR b s ->
    PR (fst (m_next_ K F pop b)) (fst (m_next_ K C pop s)) /\ snd (m_next_ K F pop b) = snd (m_next_ K C pop s).
  Proof.
    intros [-> Ha]. unfold m_next_. cbn [strip m_keys m_rev m_heap].
    destruct (pop (m_keys b) (m_rev b) (m_heap b)) as [[x h']|]; (split; [split; [reflexivity|exact Ha]|reflexivity]).
  Qed.

  Lemma PR_prev_ b s : PR b s ->
    PR (fst (m_prev_ K F pop b)) (fst (m_prev_ K C pop s)) /\ snd (m_prev_ K F pop b) = snd (m_prev_ K C pop s).
  Proof.
    intros [-> Ha]. unfold m_prev_. cbn [strip m_keys m_rev m_heap].
    destruct (pop (m_keys b) (m_rev b) (m_heap b)) as [[x h']|]; (split; [split; [reflexivity|exact Ha]|reflexivity]).
  Qed.

  Lemma PR_reposition b s m rev d : PR b s -> scan_ (map (fun x => fstep x m) (m_iters b)) = None ->
    PR (reposition K V F fstep fobs b m rev d) (reposition K V C chstep chobs s m rev d).
  Proof.
    intros [-> Ha] Hs. destruct (map_step_alive _ m Ha Hs) as [A B]. split; [|exact A].
    unfold reposition, strip. cbn. rewrite (map_key_of_alive _ A), B. reflexivity.
  Qed.

  Lemma map_upd {A B} (g : A -> B) (l : list A) : forall i a, map g (upd l i a) = upd (map g l) i (g a).
  Proof. induction l as [|x l IH]; intros [|i] a; cbn; try reflexivity. rewrite IH. reflexivity. Qed.

  Lemma Forall_upd {A} (P : A -> Prop) (l : list A) : forall i a, Forall P l -> P a -> Forall P (upd l i a).
  Proof.
    induction l as [|x l IH]; intros [|i] a Hl Ha; cbn; try constructor; inversion Hl; subst; auto.
  Qed.

  Lemma alive_nth (xs : list F) j x : Forall alive_h xs -> nth_error xs j = Some x -> alive_h x.
  Proof. intros Ha Hx. rewrite Forall_forall in Ha. apply Ha. eapply nth_error_In; eauto. Qed.

  Lemma PR_step_current b s m x : PR b s -> nth_error (m_iters b) (m_index b) = Some x -> halt_ (fstep x m) = None ->
    exists b' s', step_current K V F fstep fobs b m = Some b' /\ step_current K V C chstep chobs s m = Some s' /\ PR b' s'.
  Proof.
    intros [-> Ha] Hx Hh. destruct (fstep_alive x m (alive_nth _ _ x Ha Hx) Hh) as [[Ad Ah] Ain].
    unfold step_current. cbn [strip m_iters m_index]. rewrite nth_error_map, Hx. cbn [option_map].
    eexists _, _. split; [reflexivity|]. split; [reflexivity|].
    split; [|apply Forall_upd; [exact Ha|split; assumption]].
    unfold strip. cbn. rewrite map_upd, Ain, (key_of_alive _ Ad), Ain. reflexivity.
  Qed.

  Lemma PR_kv b s : PR b s -> m_kv K V F fobs b = m_kv K V C chobs s.
  Proof.
    intros [-> Ha]. unfold m_kv. cbn [strip m_dir m_keys m_index m_iters]. rewrite nth_error_map.
    destruct (nth_error (m_iters b) (m_index b)) as [x|] eqn:E; cbn [option_map]; [|reflexivity].
    rewrite (fobs_alive x (proj1 (alive_nth _ _ x Ha E))). reflexivity.
  Qed.

  (* the children other than the current one after Seek(key) and Prev / Last *)
  Definition oth (cur : nat) (key : K) (j : nat) (x : F) : F :=
    if Nat.eqb j cur then x
    else let c1 := fstep x (MSeek key) in if is_some (fobs c1) then fstep c1 MPrev else fstep c1 MLast.
  Definition othC (cur : nat) (key : K) (j : nat) (c : C) : C :=
    if Nat.eqb j cur then c
    else let c1 := chstep c (MSeek key) in if is_some (chobs c1) then chstep c1 MPrev else chstep c1 MLast.

  Lemma oth_alive cur key j x : alive_h x -> (j <> cur -> halt_ (oth cur key j x) = None) ->
    alive_h (oth cur key j x) /\ fc_in (oth cur key j x) = othC cur key j (fc_in x).
  Proof.
    intros Hx Hh. unfold oth, othC in *. destruct (Nat.eqb j cur) eqn:E; [split; [exact Hx|reflexivity]|].
    apply Nat.eqb_neq in E. specialize (Hh E). cbv zeta in *.
    set (c1 := fstep x (MSeek key)) in *.
    (* c1 is alive: a dead c1 stays dead and would be reported *)
    assert (Hc1 : halt_ c1 = None).
    { destruct (fc_dead c1) eqn:Ed.
      - exfalso. rewrite (fobs_dead_none c1 Ed) in Hh. cbn [is_some] in Hh. rewrite (fstep_dead_sticky c1 MLast Ed) in Hh.
        pose proof (fstep_die x (MSeek key) Hx Ed) as Hdie. fold c1 in Hdie. rewrite Hdie in Hh. discriminate.
      - unfold halt. rewrite (fobs_alive c1 Ed). unfold f_err. rewrite Ed. destruct (chobs (fc_in c1)); reflexivity. }
    destruct (fstep_alive x (MSeek key) Hx Hc1) as [A1 A2]. fold c1 in A1, A2.
    rewrite (fobs_alive c1 (proj1 A1)) in *. rewrite A2 in *.
    destruct (is_some (chobs (chstep (fc_in x) (MSeek key)))).
    - destruct (fstep_alive c1 MPrev A1 Hh) as [B1 B2]. split; [exact B1|]. rewrite B2, A2. reflexivity.
    - destruct (fstep_alive c1 MLast A1 Hh) as [B1 B2]. split; [exact B1|]. rewrite B2, A2. reflexivity.
  Qed.

  Lemma PR_others b s key : PR b s ->
    scan_ (drop_nth (m_iters (reposition_others K V F fstep fobs b key)) (m_index b)) = None ->
    PR (reposition_others K V F fstep fobs b key) (reposition_others K V C chstep chobs s key).
  Proof.
    intros [-> Ha] Hs. apply scan_none in Hs. rewrite Forall_forall in Hs.
    set (cur := m_index b) in *. set (itsF := mapi_from (oth cur key) 0 (m_iters b)).
    change (m_iters (reposition_others K V F fstep fobs b key)) with itsF in Hs.
    assert (Hj : forall j x, nth_error (m_iters b) j = Some x ->
              alive_h (oth cur key j x) /\ fc_in (oth cur key j x) = othC cur key j (fc_in x)).
    { intros j x Hx. apply oth_alive; [exact (alive_nth _ j x Ha Hx)|].
      intros Hne. apply Hs. apply (drop_nth_in _ cur j); [|exact Hne].
      unfold itsF. rewrite nth_error_mapi_from, Hx. reflexivity. }
    assert (A1 : m_iters (reposition_others K V C chstep chobs (strip b) key) = map fc_in itsF).
    { change (mapi_from (othC cur key) 0 (map fc_in (m_iters b)) = map fc_in itsF).
      apply list_eq_nth_error. intros j. unfold itsF. rewrite nth_error_map, !nth_error_mapi_from, nth_error_map.
      destruct (nth_error (m_iters b) j) as [x|] eqn:E; cbn [option_map]; [|reflexivity].
      f_equal. symmetry. apply (Hj j x E). }
    assert (A2 : Forall alive_h itsF).
    { rewrite Forall_forall. intros y Hy. apply In_nth_error in Hy as (j & Hy). unfold itsF in Hy.
      rewrite nth_error_mapi_from in Hy. destruct (nth_error (m_iters b) j) as [x|] eqn:E; [|discriminate].
      cbn in Hy. injection Hy as <-. apply (Hj j x E). }
    assert (A3 : m_keys (reposition_others K V C chstep chobs (strip b) key) = m_keys (reposition_others K V F fstep fobs b key)).
    { change (mapi_from (fun x c => if Nat.eqb x cur then nth cur (m_keys b) None else key_of K V C chobs c) 0
                        (m_iters (reposition_others K V C chstep chobs (strip b) key)) =
              mapi_from (fun x c => if Nat.eqb x cur then nth cur (m_keys b) None else key_of K V F fobs c) 0 itsF).
      rewrite A1. apply list_eq_nth_error. intros j. rewrite !nth_error_mapi_from, nth_error_map.
      destruct (nth_error itsF j) as [y|] eqn:E; cbn [option_map]; [|reflexivity].
      f_equal. destruct (Nat.eqb (0 + j) cur); [reflexivity|]. symmetry.
      apply key_of_alive. exact (proj1 (alive_nth _ j y A2 E)). }
    split; [|exact A2]. apply mstate_eq; try reflexivity; [exact A1|exact A3|].
    exact (f_equal (fun ks => filter (fun x => negb (Nat.eqb x cur)) (pushed ks 0)) A3).
  Qed.

  Notation ME := (mestate K F).
  Notation memove := (me_move K V F fstep fobs f_err pop strict).

  Definition R (se : ME) (s : bC) : Prop := me_err se = None /\ me_released se = false /\ PR (me_base se) s.

  Definition stepped (se : ME) (s : bC) (m : move K) : Prop :=
    forall s' ret, m_step K V C chstep chobs pop s m = Some (s', ret) ->
      (exists se', memove se m = Some (se', ret) /\ R se' s') \/
      (exists se' e, memove se m = Some (se', false) /\ me_err se' = Some e).

  Lemma R_with_base se b s : me_err se = None -> me_released se = false -> PR b s -> R (me_with_base se b) s.
  Proof. intros H1 H2 H3. unfold R, me_with_base. cbn. auto. Qed.

  Lemma abs_step se s m (kF : bF -> bF * bool) (kC : bC -> bC * bool) (rev : bool) d :
    R se s ->
    (forall b, kF b = (if rev then m_prev_ K F pop else m_next_ K F pop) (reposition K V F fstep fobs b m rev d)) ->
    (forall t, kC t = (if rev then m_prev_ K C pop else m_next_ K C pop) (reposition K V C chstep chobs t m rev d)) ->
    forall s' ret, kC s = (s', ret) ->
    (exists se', Some (me_abs K V F fstep fobs f_err strict se m kF) = Some (se', ret) /\ R se' s') \/
    (exists se' e, Some (me_abs K V F fstep fobs f_err strict se m kF) = Some (se', false) /\ me_err se' = Some e).
  Proof.
    intros (He & Hr & HP) EF EC s' ret Hk. unfold me_abs.
    destruct (scan_ (map (fun c => fstep c m) (m_iters (me_base se)))) as [e|] eqn:Es.
    - right. eexists _, e. split; reflexivity.
    - left. pose proof (PR_reposition _ _ m rev d HP Es) as HP'.
      rewrite EC in Hk. rewrite EF. unfold me_lift.
      destruct rev; [destruct (PR_prev_ _ _ HP') as [P1 P2]|destruct (PR_next_ _ _ HP') as [P1 P2]];
        rewrite Hk in P1, P2; (eexists; split; [rewrite P2; reflexivity|]; apply R_with_base; assumption).
  Qed.

  Lemma dir_step (rev : bool) se b s : me_err se = None -> me_released se = false -> PR b s ->
    forall s' ret, (if rev then m_prev_bwd K V C chstep chobs pop s else m_next_fwd K V C chstep chobs pop s) = Some (s', ret) ->
      let mv := if rev then me_bwd K V F fstep fobs f_err pop strict se b else me_fwd K V F fstep fobs f_err pop strict se b in
      (exists se', mv = Some (se', ret) /\ R se' s') \/ (exists se' e, mv = Some (se', false) /\ me_err se' = Some e).
  Proof.
    intros He Hr HP s' ret Hm. cbv zeta.
    destruct rev; unfold me_bwd, me_fwd, m_prev_bwd, m_next_fwd in *.
    all: destruct (nth_error (m_iters b) (m_index b)) as [x|] eqn:Ex.
    2,4: exfalso; destruct HP as [-> _]; unfold step_current in Hm; cbn [strip m_iters m_index] in Hm;
      rewrite nth_error_map, Ex in Hm; discriminate.
    all: destruct (halt_ (fstep x _)) as [e|] eqn:Eh; [right; eexists _, e; split; reflexivity|left].
    all: destruct (PR_step_current b s _ x HP Ex Eh) as (b' & s1 & E1 & E2 & HP'); rewrite E1; rewrite E2 in Hm.
    all: injection Hm as Hm; cbn [option_map]; unfold me_lift.
    1: destruct (PR_prev_ _ _ HP') as [P1 P2]. 2: destruct (PR_next_ _ _ HP') as [P1 P2].
    all: rewrite Hm in P1, P2; eexists; (split; [rewrite P2; reflexivity|]); apply R_with_base; assumption.
  Qed.

  Lemma step_sim se s m : R se s -> stepped se s m.
  Proof.
    intros HR s' ret Hm. pose proof HR as (He & Hr & HP). unfold me_move. rewrite He, Hr.
    pose proof HP as [Estrip _].
    destruct m as [| |k| |]; cbn [m_step] in Hm.
    - injection Hm as Hm. exact (abs_step se s MFirst _ _ false DirSOI HR (fun _ => eq_refl) (fun _ => eq_refl) s' ret Hm).
    - injection Hm as Hm. exact (abs_step se s MLast _ _ true DirEOI HR (fun _ => eq_refl) (fun _ => eq_refl) s' ret Hm).
    - injection Hm as Hm.
      exact (abs_step se s (MSeek k) (fun b => m_seek K V F fstep fobs pop b k) (fun t => m_seek K V C chstep chobs pop t k)
               false DirSOI HR (fun _ => eq_refl) (fun _ => eq_refl) s' ret Hm).
    - (* Next: direction, index and keys are those of the fused machine *)
      unfold m_Next in Hm. rewrite Estrip in Hm. cbn [strip m_dir m_keys m_index] in Hm. rewrite <- Estrip in Hm.
      unfold me_Next. destruct (m_dir (me_base se)) eqn:Ed.
      + injection Hm as Hm. exact (abs_step se s MFirst _ _ false DirSOI HR (fun _ => eq_refl) (fun _ => eq_refl) s' ret Hm).
      + injection Hm as <- <-. left. exists se. split; [reflexivity|exact HR].
      + destruct (nth (m_index (me_base se)) (m_keys (me_base se)) None) as [key|]; [|discriminate].
        destruct (scan_ (map (fun c => fstep c (MSeek key)) (m_iters (me_base se)))) as [e|] eqn:Es.
        { right. eexists _, e. split; reflexivity. }
        pose proof (PR_reposition _ _ (MSeek key) false DirSOI HP Es) as HP1.
        destruct (PR_next_ _ _ HP1) as [P1 P2].
        unfold m_seek in *.
        destruct (m_next_ K F pop (reposition K V F fstep fobs (me_base se) (MSeek key) false DirSOI)) as [b1 okF] eqn:EF.
        destruct (m_next_ K C pop (reposition K V C chstep chobs s (MSeek key) false DirSOI)) as [s1 okC] eqn:EC.
        cbn [fst snd] in P1, P2. subst okF. destruct okC.
        * exact (dir_step false se b1 s1 He Hr P1 s' ret Hm).
        * injection Hm as <- <-. left. eexists. split; [reflexivity|]. apply R_with_base; assumption.
      + exact (dir_step false se (me_base se) s He Hr HP s' ret Hm).
    - unfold m_Prev in Hm. rewrite Estrip in Hm. cbn [strip m_dir m_keys m_index] in Hm. rewrite <- Estrip in Hm.
      unfold me_Prev. destruct (m_dir (me_base se)) eqn:Ed.
      + injection Hm as <- <-. left. exists se. split; [reflexivity|exact HR].
      + injection Hm as Hm. exact (abs_step se s MLast _ _ true DirEOI HR (fun _ => eq_refl) (fun _ => eq_refl) s' ret Hm).
      + exact (dir_step true se (me_base se) s He Hr HP s' ret Hm).
      + destruct (nth (m_index (me_base se)) (m_keys (me_base se)) None) as [key|]; [|discriminate].
        destruct (scan_ (drop_nth (m_iters (reposition_others K V F fstep fobs (me_base se) key)) (m_index (me_base se)))) as [e|] eqn:Es.
        { right. eexists _, e. split; reflexivity. }
        exact (dir_step true se _ _ He Hr (PR_others _ _ key HP Es) s' ret Hm).
  Qed.

  Definition proj (o : eout K V) : output K V := (eo_ret o, eo_kv o).
  Notation merun := (me_run K V F fstep fobs f_err pop strict).

  (* the shape of the outputs: j calls answered as the error-free machine answers them, with no error
     recorded; from call j on (false, nil, nil), not valid, the error e recorded.  j = n: no call failed,
     and e says nothing. *)
  Definition degraded (n : nat) (outs : list (output K V)) (eouts : list (eout K V)) (j : nat) (e : ierr) : Prop :=
    j <= n /\ map proj eouts = firstn j outs ++ repeat (false, None) (n - j) /\
    Forall (fun o => eo_err o = None) (firstn j eouts) /\
    Forall (fun o => eo_err o = Some e /\ eo_valid o = false) (skipn j eouts).

  Lemma degraded_nil e : degraded 0 [] [] 0 e.
  Proof. unfold degraded. cbn. auto. Qed.

  Lemma degraded_cons n outs eouts j e o : degraded n outs eouts j e -> eo_err o = None ->
    degraded (S n) (proj o :: outs) (o :: eouts) (S j) e.
  Proof.
    intros (Hj & Hmap & Hok & Hbad) Ho. unfold degraded. cbn [firstn skipn map app].
    split; [lia|]. split; [rewrite Hmap; reflexivity|]. split; [constructor; assumption|exact Hbad].
  Qed.

  Lemma degraded_dead {A} (ms : list A) outs o e : eo_err o = Some e -> eo_valid o = false -> proj o = (false, None) ->
    degraded (S (length ms)) outs (o :: map (fun _ => dead_out K V e) ms) 0 e.
  Proof.
    intros He Hv Hp. unfold degraded. cbn [firstn skipn map app length repeat Nat.sub].
    split; [lia|]. split; [|split; constructor; auto].
    - rewrite Hp, map_map. f_equal. induction ms as [|x ms IH]; [reflexivity|]. cbn. f_equal. exact IH.
    - rewrite Forall_forall. intros x Hx. apply in_map_iff in Hx as (y & <- & _). cbn. auto.
  Qed.

  Lemma run_sim : forall ms se s outs, R se s -> m_run K V C chstep chobs pop s ms = Some outs ->
    exists eouts j e, merun se (map CMove ms) = Some eouts /\ degraded (length ms) outs eouts j e.
  Proof.
    induction ms as [|m ms IH]; intros se s outs HR Hm.
    - cbn in Hm. injection Hm as <-. exists [], 0, EOther. split; [reflexivity|apply degraded_nil].
    - cbn [m_run] in Hm. destruct (m_step K V C chstep chobs pop s m) as [[s' ret]|] eqn:Es; [|discriminate].
      destruct (m_run K V C chstep chobs pop s' ms) as [o|] eqn:Er; [|discriminate]. injection Hm as <-.
      destruct (step_sim se s m HR s' ret Es) as [(se' & E & HR')|(se' & e & E & Ee)].
      + destruct (IH se' s' o HR' Er) as (eouts & j & e & Erun & Hd).
        exists (me_out fobs se' ret :: eouts), (S j), e. split.
        * cbn [map me_run me_call]. rewrite E, Erun. reflexivity.
        * destruct HR' as (He' & Hr' & HP').
          replace (ret, m_kv K V C chobs s') with (proj (me_out fobs se' ret)); [apply degraded_cons; assumption|].
          unfold proj, me_out, me_kv, me_dead. cbn [eo_ret eo_kv]. rewrite He', Hr', (PR_kv _ _ HP'). reflexivity.
      + exists (me_out fobs se' false :: map (fun _ => dead_out K V e) ms), 0, e. split.
        * cbn [map me_run me_call]. rewrite E.
          rewrite (me_error_stops K V F fstep fobs f_err pop strict se' e ms Ee). reflexivity.
        * apply degraded_dead; unfold proj, me_out, me_kv, me_valid, me_dead; cbn; rewrite Ee; reflexivity.
  Qed.
End MergedPrefix.

(* (4) packaged: children that behave like cursors over strictly sorted lists with no key in common, each
   behind a fuse of a kind that halts the merged iterator (any error when strict, any non-corruption error
   otherwise): for every call sequence the outputs are those of the cursor over the merge for the first j
   calls, and (false, nil, nil) with the failed child's error from call j on.  In particular no pair is ever
   shown that the cursor would not show at that call. *)
Theorem merged_error_prefix (K V C : Type) (kcmp : K -> K -> comparison) (chstep : C -> move K -> C)
  (chobs : C -> option (K * V)) (pop : list (option K) -> bool -> list nat -> option (nat * list nat))
  (strict : bool) (ls : list (list (K * V))) (fits : list (fchild C)) :
  ord_ok kcmp -> pop_ok K kcmp pop ->
  Forall (sorted_kv kcmp) ls -> NoDup (map fst (concat ls)) ->
  Forall2 (fun c l => refines kcmp chstep chobs c l) (map fc_in fits) ls ->
  Forall (alive_h C strict) fits ->
  forall ms, exists eouts j e,
    me_run K V (fchild C) (f_step chstep) (f_obs chobs) f_err pop strict (me_init fits) (map CMove ms) = Some eouts /\
    degraded K V (length ms) (run_cursor kcmp (merge_lists kcmp ls) ms) eouts j e.
Proof.
  intros ok Hpop Hs Hnd Href Hal ms.
  apply (run_sim K V C chstep chobs pop strict ms (me_init fits) (m_init (map fc_in fits))).
  - split; [reflexivity|]. split; [reflexivity|]. split; [|exact Hal].
    unfold me_init, m_init, strip. cbn. rewrite map_map. reflexivity.
  - apply (merged_refines K V C kcmp chstep chobs pop ls (map fc_in fits)); assumption.
Qed.
