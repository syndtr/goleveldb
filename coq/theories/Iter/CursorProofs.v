(* Iter/CursorProofs.v — facts about the reference cursor: order laws for an abstract order function,
   characterisation of every cursor move on a strictly sorted list by order properties (least
   element above / greatest element below), black-box refinement lemmas (refines_by_sim: a relation with
   the cursor's positions that every call preserves), a simulation-to-refinement theorem for total
   machines, and a black-box child read as a cursor over a split list A ++ e :: B (Section ChildFacts,
   what the proofs of the indexed iterator and of dbIter use). *)
From GL Require Import Iter.Cursor.
From GL Require Mem.ListLemmas.
From Coq Require Import Lia Arith.

Section Ord.
  Context {K : Type} (f : K -> K -> comparison) (ok : ord_ok f).

  Lemma f_refl a : f a a = Eq.
  Proof. apply (o_eq f ok). reflexivity. Qed.

  Lemma f_gt_lt a b : f a b = Gt <-> f b a = Lt.
  Proof. rewrite (o_opp f ok a b). destruct (f a b); cbn; split; congruence. Qed.

  Lemma f_lt_gt a b : f a b = Lt <-> f b a = Gt.
  Proof. rewrite (o_opp f ok a b). destruct (f a b); cbn; split; congruence. Qed.

  Lemma f_lt_irrefl a : f a a <> Lt.
  Proof. rewrite f_refl. discriminate. Qed.

  Lemma f_lt_asym a b : f a b = Lt -> f b a <> Lt.
  Proof. intros H. apply f_lt_gt in H. congruence. Qed.

  Lemma f_lt_neq a b : f a b = Lt -> a <> b.
  Proof. intros H ->. apply (f_lt_irrefl b H). Qed.

  Lemma f_le_lt_trans a b d : f a b <> Gt -> f b d = Lt -> f a d = Lt.
  Proof.
    intros H1 H2. destruct (f a b) eqn:E.
    - apply (o_eq f ok) in E. subst. exact H2.
    - eapply (o_trans f ok); eauto.
    - congruence.
  Qed.

  Lemma f_lt_le_trans a b d : f a b = Lt -> f b d <> Gt -> f a d = Lt.
  Proof.
    intros H1 H2. destruct (f b d) eqn:E.
    - apply (o_eq f ok) in E. subst. exact H1.
    - eapply (o_trans f ok); eauto.
    - congruence.
  Qed.

  Lemma f_le_trans a b d : f a b <> Gt -> f b d <> Gt -> f a d <> Gt.
  Proof.
    intros H1 H2. destruct (f b d) eqn:E.
    - apply (o_eq f ok) in E. subst. exact H1.
    - rewrite (f_le_lt_trans a b d H1 E). discriminate.
    - congruence.
  Qed.

  Lemma f_total a b : f a b = Lt \/ a = b \/ f b a = Lt.
  Proof.
    destruct (f a b) eqn:E.
    - right; left. apply (o_eq f ok). exact E.
    - left; reflexivity.
    - right; right. apply f_gt_lt. exact E.
  Qed.

  Lemma f_not_lt_le a b : f a b <> Lt <-> f b a <> Gt.
  Proof. rewrite (o_opp f ok a b). destruct (f a b); cbn; split; congruence. Qed.

  Lemma f_le_antisym a b : f a b <> Gt -> f b a <> Gt -> a = b.
  Proof.
    intros H1 H2. apply (o_eq f ok). rewrite (o_opp f ok a b) in H2.
    destruct (f a b); cbn in *; congruence.
  Qed.

  Lemma f_lt_le a b : f a b = Lt -> f a b <> Gt.
  Proof. intros ->. discriminate. Qed.

  Lemma f_ge_cases a b : f a b <> Lt -> a = b \/ f b a = Lt.
  Proof. intros H. destruct (f_total a b) as [|[|]]; auto. congruence. Qed.
End Ord.

Lemma cons_cases {A} (l : list A) : l = [] \/ exists x r, l = x :: r.
Proof. destruct l; eauto. Qed.

Section SortedFacts.
  Context {K V : Type} (f : K -> K -> comparison) (ok : ord_ok f).
  Notation kv := (K * V)%type.
  Notation sorted := (sorted_kv f).
  Notation klt a b := (f (fst a) (fst b) = Lt).

  Lemma sorted_cons_inv (x : kv) l : sorted (x :: l) -> sorted l /\ Forall (kv_lt f x) l.
  Proof. intros H. inversion H; subst. split; assumption. Qed.

  Lemma sorted_app_inv (l1 l2 : list kv) : sorted (l1 ++ l2) ->
    sorted l1 /\ sorted l2 /\ forall a b, In a l1 -> In b l2 -> klt a b.
  Proof.
    induction l1 as [|x l1 IH]; cbn; intros H.
    - split; [constructor|]. split; [exact H|]. intros a b [].
    - apply sorted_cons_inv in H as [Hs Hf]. destruct (IH Hs) as (S1 & S2 & S3).
      rewrite Forall_app in Hf. destruct Hf as [F1 F2].
      split; [constructor; assumption|]. split; [assumption|].
      intros a b [<-|Ha] Hb.
      + rewrite Forall_forall in F2. apply F2. exact Hb.
      + apply S3; assumption.
  Qed.

  Lemma sorted_app (l1 l2 : list kv) : sorted l1 -> sorted l2 ->
    (forall a b, In a l1 -> In b l2 -> klt a b) -> sorted (l1 ++ l2).
  Proof.
    induction l1 as [|x l1 IH]; cbn; intros S1 S2 H; [exact S2|].
    apply sorted_cons_inv in S1 as [S1 F1]. constructor.
    - apply IH; auto.
    - rewrite Forall_app. split; [exact F1|]. rewrite Forall_forall. intros b Hb. apply H; auto.
  Qed.

  Lemma sorted_nth_lt (l : list kv) : sorted l -> forall i j a b, i < j ->
    nth_error l i = Some a -> nth_error l j = Some b -> klt a b.
  Proof.
    induction l as [|x l IH]; intros Hs i j a b Hij Ha Hb.
    - destruct i; discriminate.
    - apply sorted_cons_inv in Hs as [Hs F]. destruct j as [|j]; [lia|]. cbn in Hb.
      destruct i as [|i]; cbn in Ha.
      + injection Ha as <-. rewrite Forall_forall in F. apply F. eapply nth_error_In; eauto.
      + apply (IH Hs i j a b); [lia|exact Ha|exact Hb].
  Qed.

  Lemma sorted_nth_le (l : list kv) : sorted l -> forall i j a b, i <= j ->
    nth_error l i = Some a -> nth_error l j = Some b -> f (fst a) (fst b) <> Gt.
  Proof.
    intros Hs i j a b Hij Ha Hb. destruct (Nat.eq_dec i j) as [->|N].
    - assert (a = b) by congruence. subst. rewrite (f_refl f ok). discriminate.
    - rewrite (sorted_nth_lt l Hs i j a b ltac:(lia) Ha Hb). discriminate.
  Qed.

  Lemma sorted_nth_key_inj (l : list kv) : sorted l -> forall i j a b,
    nth_error l i = Some a -> nth_error l j = Some b -> fst a = fst b -> i = j.
  Proof.
    intros Hs i j a b Ha Hb E.
    destruct (Nat.lt_trichotomy i j) as [H|[H|H]]; auto; exfalso.
    - pose proof (sorted_nth_lt l Hs i j a b H Ha Hb) as L. rewrite E in L. apply (f_lt_irrefl f ok _ L).
    - pose proof (sorted_nth_lt l Hs j i b a H Hb Ha) as L. rewrite E in L. apply (f_lt_irrefl f ok _ L).
  Qed.

  Lemma sorted_lt_index (l : list kv) : sorted l -> forall i j a b,
    nth_error l i = Some a -> nth_error l j = Some b -> klt a b -> i < j.
  Proof.
    intros Hs i j a b Ha Hb L.
    destruct (Nat.lt_trichotomy i j) as [H|[H|H]]; auto; exfalso.
    - subst. rewrite Ha in Hb. injection Hb as <-. apply (f_lt_irrefl f ok _ L).
    - pose proof (sorted_nth_lt l Hs j i b a H Hb Ha) as L2. apply (f_lt_asym f ok _ _ L L2).
  Qed.

  Lemma succ_char (l : list kv) i e e' : sorted l -> nth_error l i = Some e -> In e' l -> klt e e' ->
    (forall y, In y l -> klt e y -> f (fst e') (fst y) <> Gt) -> nth_error l (S i) = Some e'.
  Proof.
    intros Hs He Hin L Hmin. apply In_nth_error in Hin as [j Hj].
    pose proof (sorted_lt_index l Hs i j e e' He Hj L) as Hij.
    destruct (Nat.eq_dec j (S i)) as [->|N]; [exact Hj|]. exfalso.
    assert (Hlen : S i < length l). { apply ListLemmas.nth_error_Some_lt in Hj. lia. }
    destruct (nth_error l (S i)) as [y|] eqn:Hy; [|apply nth_error_None in Hy; lia].
    assert (L1 : klt e y) by (eapply sorted_nth_lt; [exact Hs| |exact He|exact Hy]; lia).
    assert (L2 : klt y e') by (eapply sorted_nth_lt; [exact Hs| |exact Hy|exact Hj]; lia).
    apply (Hmin y); [eapply nth_error_In; eauto|exact L1|]. apply (f_lt_gt f ok). exact L2.
  Qed.

  Lemma last_char (l : list kv) i e : sorted l -> nth_error l i = Some e ->
    (forall y, In y l -> ~ klt e y) -> S i = length l.
  Proof.
    intros Hs He Hmax. assert (i < length l) by (apply nth_error_Some; congruence).
    destruct (nth_error l (S i)) as [y|] eqn:Hy.
    - exfalso. apply (Hmax y); [eapply nth_error_In; eauto|].
      eapply sorted_nth_lt; [exact Hs| |exact He|exact Hy]. lia.
    - apply nth_error_None in Hy. lia.
  Qed.

  Lemma pred_char (l : list kv) i e e' : sorted l -> nth_error l (S i) = Some e -> In e' l -> klt e' e ->
    (forall y, In y l -> klt y e -> f (fst y) (fst e') <> Gt) -> nth_error l i = Some e'.
  Proof.
    intros Hs He Hin L Hmax. apply In_nth_error in Hin as [j Hj].
    pose proof (sorted_lt_index l Hs j (S i) e' e Hj He L) as Hij.
    destruct (Nat.eq_dec j i) as [->|N]; [exact Hj|]. exfalso.
    destruct (nth_error l i) as [y|] eqn:Hy.
    2:{ apply nth_error_None in Hy. apply ListLemmas.nth_error_Some_lt in He. lia. }
    assert (L1 : klt y e) by (eapply sorted_nth_lt; [exact Hs| |exact Hy|exact He]; lia).
    assert (L2 : klt e' y) by (eapply sorted_nth_lt; [exact Hs| |exact Hj|exact Hy]; lia).
    apply (Hmax y); [eapply nth_error_In; eauto|exact L1|]. apply (f_lt_gt f ok). exact L2.
  Qed.

  Lemma first_char_zero (l : list kv) i e : sorted l -> nth_error l i = Some e ->
    (forall y, In y l -> ~ klt y e) -> i = 0.
  Proof.
    intros Hs He Hmin. destruct i as [|i]; auto. exfalso.
    destruct l as [|y l]; [discriminate|].
    apply (Hmin y); [left; reflexivity|].
    apply (sorted_nth_lt (y :: l) Hs 0 (S i) y e); [lia|reflexivity|exact He].
  Qed.

  Lemma find_ge_spec k (l : list kv) : forall i0,
    match find_ge f k l i0 with
    | At j => exists x, i0 <= j /\ nth_error l (j - i0) = Some x /\ f (fst x) k <> Lt /\
                        forall m y, m < j - i0 -> nth_error l m = Some y -> f (fst y) k = Lt
    | EOI => forall y, In y l -> f (fst y) k = Lt
    | SOI => False
    end.
  Proof.
    induction l as [|x l IH]; intros i0; cbn.
    - intros y [].
    - destruct (f (fst x) k) eqn:E.
      + exists x. replace (i0 - i0) with 0 by lia. repeat split; auto; try congruence. intros; lia.
      + specialize (IH (S i0)). destruct (find_ge f k l (S i0)) as [|j|].
        * exact IH.
        * destruct IH as (y & Hle & Hn & Hge & Hlt). exists y.
          replace (j - i0) with (S (j - S i0)) by lia. cbn. repeat split; auto; try lia.
          intros m z Hm Hz. destruct m as [|m]; cbn in Hz.
          -- injection Hz as <-. exact E.
          -- apply (Hlt m z); auto. lia.
        * intros y [<-|Hy]; auto.
      + exists x. replace (i0 - i0) with 0 by lia. repeat split; auto; try congruence. intros; lia.
  Qed.

  Lemma find_ge_at k (l : list kv) j : find_ge f k l 0 = At j ->
    exists x, nth_error l j = Some x /\ f (fst x) k <> Lt /\
              forall m y, m < j -> nth_error l m = Some y -> f (fst y) k = Lt.
  Proof.
    intros H. pose proof (find_ge_spec k l 0) as Sp. rewrite H in Sp.
    destruct Sp as (x & _ & Hn & Hge & Hlt). rewrite Nat.sub_0_r in *. eauto.
  Qed.

  Lemma find_ge_eoi k (l : list kv) : find_ge f k l 0 = EOI -> forall y, In y l -> f (fst y) k = Lt.
  Proof. intros H. pose proof (find_ge_spec k l 0) as Sp. rewrite H in Sp. exact Sp. Qed.

  Lemma find_ge_not_soi k (l : list kv) i0 : find_ge f k l i0 <> SOI.
  Proof. intros H. pose proof (find_ge_spec k l i0) as Sp. rewrite H in Sp. exact Sp. Qed.

  Lemma seek_char (l : list kv) k x : sorted l -> In x l -> f (fst x) k <> Lt ->
    (forall y, In y l -> f (fst y) k <> Lt -> f (fst x) (fst y) <> Gt) ->
    exists j, find_ge f k l 0 = At j /\ nth_error l j = Some x.
  Proof.
    intros Hs Hin Hge Hmin.
    destruct (find_ge f k l 0) as [|j|] eqn:E.
    - exfalso. eapply find_ge_not_soi; eauto.
    - exists j. split; auto. apply find_ge_at in E as (z & Hz & Hzge & Hlt).
      apply In_nth_error in Hin as [i Hi].
      destruct (Nat.lt_trichotomy i j) as [H|[H|H]].
      + exfalso. apply Hge. eapply Hlt; eauto.
      + subst. congruence.
      + exfalso. pose proof (sorted_nth_lt l Hs j i z x H Hz Hi) as L.
        apply (Hmin z); [eapply nth_error_In; eauto|exact Hzge|]. apply (f_lt_gt f ok). exact L.
    - exfalso. apply Hge. eapply find_ge_eoi; eauto.
  Qed.

  Lemma find_ge_app_lt k (l1 l2 : list kv) : forall i0, (forall y, In y l1 -> f (fst y) k = Lt) ->
    find_ge f k (l1 ++ l2) i0 = find_ge f k l2 (i0 + length l1).
  Proof.
    induction l1 as [|x l1 IH]; intros i0 H; cbn.
    - rewrite Nat.add_0_r. reflexivity.
    - rewrite (H x (or_introl eq_refl)). rewrite IH by (intros y Hy; apply H; right; exact Hy).
      f_equal. lia.
  Qed.

  Lemma find_ge_head k (x : kv) l i0 : f (fst x) k <> Lt -> find_ge f k (x :: l) i0 = At i0.
  Proof. cbn. destruct (f (fst x) k); congruence. Qed.

  Lemma seek_char_eoi (l : list kv) k : (forall y, In y l -> f (fst y) k = Lt) -> find_ge f k l 0 = EOI.
  Proof.
    intros H. destruct (find_ge f k l 0) as [|j|] eqn:E; auto.
    - exfalso. eapply find_ge_not_soi; eauto.
    - apply find_ge_at in E as (z & Hz & Hzge & _). exfalso. apply Hzge. apply H. eapply nth_error_In; eauto.
  Qed.
End SortedFacts.

Section PosOk.
  Context {K V : Type} (f : K -> K -> comparison).

  Definition pos_ok (l : list (K * V)) (p : pos) : Prop :=
    match p with At i => i < length l | _ => True end.

  Lemma find_ge_ok k (l : list (K * V)) : forall i0 j, find_ge f k l i0 = At j -> i0 <= j < i0 + length l.
  Proof.
    induction l as [|x l IH]; cbn; intros i0 j H; [discriminate|].
    destruct (f (fst x) k).
    - injection H as <-. lia.
    - apply IH in H. lia.
    - injection H as <-. lia.
  Qed.

  Lemma cstep_ok l p m : pos_ok l p -> pos_ok l (cstep f l p m).
  Proof.
    intros Hp. destruct m; cbn -[Nat.ltb].
    - destruct l; cbn; auto. lia.
    - unfold clast. destruct (length l) eqn:E; cbn; auto. lia.
    - destruct (find_ge f k l 0) eqn:E; cbn; auto. apply find_ge_ok in E. lia.
    - destruct p; cbn -[Nat.ltb]; auto.
      + destruct l; cbn; auto. lia.
      + destruct (Nat.ltb (S i) (length l)) eqn:E; cbn -[Nat.ltb]; auto. apply Nat.ltb_lt in E. exact E.
    - destruct p as [|[|i]|]; cbn in *; auto; try lia.
      unfold clast. destruct (length l) eqn:E; cbn; auto. lia.
  Qed.

  Lemma cobs_some_ok (l : list (K * V)) p x : cobs l p = Some x -> exists i, p = At i /\ nth_error l i = Some x.
  Proof. destruct p; cbn; try discriminate. eauto. Qed.
End PosOk.

Lemma cstep_next_lt {K V} (f : K -> K -> comparison) (l : list (K * V)) i :
  S i < length l -> cstep f l (At i) MNext = At (S i).
Proof. intros H. cbn -[Nat.ltb]. apply Nat.ltb_lt in H. rewrite H. reflexivity. Qed.

Lemma cstep_next_ge {K V} (f : K -> K -> comparison) (l : list (K * V)) i :
  length l <= S i -> cstep f l (At i) MNext = EOI.
Proof. intros H. cbn -[Nat.ltb]. apply Nat.ltb_ge in H. rewrite H. reflexivity. Qed.

Definition pos_end {A} (a : list A) : pos := match a with [] => SOI | _ => At (length a - 1) end.

Lemma pos_end_snoc {A} (a : list A) x : pos_end (a ++ [x]) = At (length a).
Proof.
  unfold pos_end. destruct (a ++ [x]) eqn:E; [destruct a; discriminate|].
  rewrite <- E, app_length. cbn. f_equal. lia.
Qed.

Lemma cstep_next_pos_end {K V} (f : K -> K -> comparison) (l a : list (K * V)) e b :
  l = a ++ e :: b -> cstep f l (pos_end a) MNext = At (length a).
Proof.
  intros Hl. destruct (ListLemmas.list_snoc_cases a) as [->|(a0 & x & ->)].
  - cbn. rewrite Hl. reflexivity.
  - rewrite pos_end_snoc, cstep_next_lt by (rewrite Hl, !app_length; cbn; lia).
    rewrite app_length. cbn. f_equal. lia.
Qed.

Section BlackBoxFacts.
  Context {K V C : Type} (f : K -> K -> comparison) (step : C -> move K -> C) (obs : C -> option (K * V)).

  Lemma refines_from_obs x l p : refines_from f step obs x l p -> obs x = cobs l p.
  Proof. intros H. exact (H []). Qed.

  Lemma refines_from_step x l p m : refines_from f step obs x l p ->
    refines_from f step obs (step x m) l (cstep f l p m).
  Proof. intros H ms. exact (H (m :: ms)). Qed.

  Lemma refines_from_step_obs x l p m : refines_from f step obs x l p ->
    obs (step x m) = cobs l (cstep f l p m).
  Proof. intros H. exact (H [m]). Qed.
End BlackBoxFacts.

(* a relation with the cursor's positions that every call preserves makes a refinement *)
Section BySim.
  Context {K V C : Type} (f : K -> K -> comparison) (step : C -> move K -> C) (obs : C -> option (K * V)).
  Variable l : list (K * V).
  Variable R : C -> pos -> Prop.
  Hypothesis R_obs : forall x p, R x p -> obs x = cobs l p.
  Hypothesis R_step : forall x p m, R x p -> R (step x m) (cstep f l p m).

  Lemma refines_by_sim x p : R x p -> refines_from f step obs x l p.
  Proof.
    intros H ms. revert x p H. induction ms as [|m ms IH]; intros x p H; cbn [bb_run crun fold_left].
    - apply R_obs. exact H.
    - apply (IH (step x m) (cstep f l p m)). apply R_step. exact H.
  Qed.
End BySim.

Lemma cursor_refines_itself {K V} (f : K -> K -> comparison) (l : list (K * V)) p :
  refines_from f (cur_step f) cur_obs (l, p) l p.
Proof.
  intros ms. revert p. induction ms as [|m ms IH]; intros p; cbn; [reflexivity|].
  apply (IH (cstep f l p m)).
Qed.

Section Simulation.
  Context {K V St : Type} (f : K -> K -> comparison).
  Variable mstep : St -> move K -> St * output K V.
  Variable l : list (K * V).
  Variable R : St -> pos -> Prop.
  Hypothesis sim : forall s p m, R s p ->
    R (fst (mstep s m)) (cstep f l p m) /\ snd (mstep s m) = out_of (cobs l (cstep f l p m)).

  Lemma simulation_run_from s p ms : R s p -> run_machine mstep s ms = run_from f l p ms.
  Proof.
    revert s p. induction ms as [|m ms IH]; intros s p HR; cbn; [reflexivity|].
    destruct (sim s p m HR) as [HR' Ho]. destruct (mstep s m) as [s' o]; cbn in *.
    rewrite Ho. f_equal. apply IH. exact HR'.
  Qed.

  Theorem simulation_refines s ms : R s SOI -> run_machine mstep s ms = run_cursor f l ms.
  Proof. apply simulation_run_from. Qed.
End Simulation.

Lemma run_from_valid_iff {K V} (f : K -> K -> comparison) (l : list (K * V)) p ms :
  Forall (fun o => fst o = is_some (snd o)) (run_from f l p ms).
Proof.
  revert p. induction ms as [|m ms IH]; intros p; cbn; constructor; auto.
Qed.

Lemma run_from_outputs {K V} (f : K -> K -> comparison) (l : list (K * V)) p ms :
  Forall (fun o => fst o = is_some (snd o) /\ forall x, snd o = Some x -> In x l) (run_from f l p ms).
Proof.
  revert p. induction ms as [|m ms IH]; intros p; cbn; constructor; auto.
  split; [reflexivity|]. cbn. intros x H. destruct (cstep f l p m); cbn in H; try discriminate.
  eapply nth_error_In; eauto.
Qed.

Lemma run_cursor_outputs {K V} (f : K -> K -> comparison) (l : list (K * V)) ms :
  Forall (fun o => fst o = is_some (snd o) /\ forall x, snd o = Some x -> In x l) (run_cursor f l ms).
Proof. apply run_from_outputs. Qed.

Lemma seek_lands_first_ge {K V} (f : K -> K -> comparison) (ok : ord_ok f) (l : list (K * V)) p k :
  sorted_kv f l ->
  match cobs l (cstep f l p (MSeek k)) with
  | Some x => In x l /\ f (fst x) k <> Lt /\ forall y, In y l -> f (fst y) k <> Lt -> f (fst x) (fst y) <> Gt
  | None => forall y, In y l -> f (fst y) k = Lt
  end.
Proof.
  intros Hs. cbn [cstep]. destruct (find_ge f k l 0) as [|i|] eqn:E.
  - exfalso. eapply find_ge_not_soi; eauto.
  - destruct (find_ge_at f k l i E) as (x & Hx & Hge & Hlt). cbn [cobs]. rewrite Hx.
    split; [eapply nth_error_In; eauto|]. split; [exact Hge|]. intros y Hy Hyge.
    apply In_nth_error in Hy as [j Hj]. destruct (Nat.lt_ge_cases j i) as [H|H].
    + exfalso. apply Hyge. eapply Hlt; eauto.
    + exact (sorted_nth_le f ok l Hs i j x y H Hx Hj).
  - cbn [cobs]. apply (find_ge_eoi f k l E).
Qed.

Section ChildFacts.
  Context {K V C : Type} (f : K -> K -> comparison) (step : C -> move K -> C) (obs : C -> option (K * V)).
  Variable l : list (K * V).
  Notation at_ x q := (refines_from f step obs x l q).

  Lemma nth_error_middle {A} (a : list A) e b : nth_error (a ++ e :: b) (length a) = Some e.
  Proof. rewrite nth_error_app2 by lia. rewrite Nat.sub_diag. reflexivity. Qed.

  Lemma rf_obs_mid x A e B : l = A ++ e :: B -> at_ x (At (length A)) -> obs x = Some e.
  Proof. intros Hl H. rewrite (refines_from_obs f step obs _ _ _ H). cbn. rewrite Hl. apply nth_error_middle. Qed.

  Lemma rf_none x q : at_ x q -> q = SOI \/ q = EOI -> obs x = None.
  Proof. intros H [-> | ->]; rewrite (refines_from_obs f step obs _ _ _ H); reflexivity. Qed.

  Lemma rf_next_some x A e e' B : l = A ++ e :: e' :: B -> at_ x (At (length A)) ->
    at_ (step x MNext) (At (S (length A))).
  Proof.
    intros Hl H. pose proof (refines_from_step f step obs _ _ _ MNext H) as H'.
    rewrite cstep_next_lt in H' by (rewrite Hl, app_length; cbn; lia). exact H'.
  Qed.

  Lemma rf_next_none x A e : l = A ++ [e] -> at_ x (At (length A)) -> at_ (step x MNext) EOI.
  Proof.
    intros Hl H. pose proof (refines_from_step f step obs _ _ _ MNext H) as H'.
    rewrite cstep_next_ge in H' by (rewrite Hl, app_length; cbn; lia). exact H'.
  Qed.

  Lemma rf_prev_some x i : at_ x (At (S i)) -> at_ (step x MPrev) (At i).
  Proof. intros H. exact (refines_from_step f step obs _ _ _ MPrev H). Qed.

  Lemma rf_prev_none x : at_ x (At 0) -> at_ (step x MPrev) SOI.
  Proof. intros H. exact (refines_from_step f step obs _ _ _ MPrev H). Qed.
End ChildFacts.

Lemma find_ge_shift {K V} (f : K -> K -> comparison) k (l : list (K * V)) : forall i0,
  find_ge f k l i0 = match find_ge f k l 0 with At j => At (i0 + j) | q => q end.
Proof.
  induction l as [|x l IH]; intros i0; cbn; [reflexivity|].
  destruct (f (fst x) k); try (rewrite Nat.add_0_r; reflexivity).
  rewrite (IH (S i0)), (IH 1). destruct (find_ge f k l 0); auto. f_equal. lia.
Qed.

Lemma find_ge_app_found {K V} (f : K -> K -> comparison) k (l1 l2 : list (K * V)) : forall i0 j,
  find_ge f k l1 i0 = At j -> find_ge f k (l1 ++ l2) i0 = At j.
Proof.
  induction l1 as [|x l1 IH]; intros i0 j; cbn; [discriminate|].
  destruct (f (fst x) k); auto.
Qed.
