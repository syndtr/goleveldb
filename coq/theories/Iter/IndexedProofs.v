(* Iter/IndexedProofs.v — the indexed iterator (Iter/Indexed.v) refines the cursor over the
   concatenation of its data blocks: simulation relation, preserved by each of the five calls. *)
From GL Require Import Iter.CursorProofs Iter.Indexed.
From GL Require Mem.ListLemmas.
From Coq Require Import Lia Arith.

Section IndexedProofs.
  Variables K V D I C : Type.
  Variable kcmp : K -> K -> comparison.
  Hypothesis ok : ord_ok kcmp.
  Variable istep : I -> move K -> I.
  Variable iobs : I -> option (K * D).
  Variable mk : D -> C.
  Variable dstep : C -> move K -> C.
  Variable dobs : C -> option (K * V).
  Variable il : list (K * D).
  Variable dl : D -> list (K * V).
  Hypothesis Hok : index_ok kcmp il dl.
  Hypothesis Hmk : forall d, In d (map snd il) -> refines kcmp dstep dobs (mk d) (dl d).

  Notation cb l := (concat_blocks l dl).
  Notation T := (concat_blocks il dl).
  Notation index_at i q := (refines_from kcmp istep iobs i il q).
  Notation data_at d dd q := (refines_from kcmp dstep dobs d (dl dd) q).
  Notation xst := (xstate I C).
  Notation x_next := (x_next K V D I C istep iobs mk dstep dobs).
  Notation x_prev := (x_prev K V D I C istep iobs mk dstep dobs).
  Notation get_data := (get_data K D I C iobs mk).

  Lemma cb_app (a b : list (K * D)) : cb (a ++ b) = cb a ++ cb b.
  Proof. unfold concat_blocks. rewrite map_app, concat_app. reflexivity. Qed.

  Lemma cb_cons ik dd (b : list (K * D)) : cb ((ik, dd) :: b) = dl dd ++ cb b.
  Proof. reflexivity. Qed.

  Lemma cb_snoc (a : list (K * D)) ik dd : cb (a ++ [(ik, dd)]) = cb a ++ dl dd.
  Proof. rewrite cb_app, cb_cons. cbn. rewrite app_nil_r. reflexivity. Qed.

  Lemma T_split A ik dd B : il = A ++ (ik, dd) :: B -> T = cb A ++ dl dd ++ cb B.
  Proof. intros ->. rewrite cb_app, cb_cons. reflexivity. Qed.

  Lemma T_nth A ik dd B j : il = A ++ (ik, dd) :: B -> j < length (dl dd) ->
    nth_error T (length (cb A) + j) = nth_error (dl dd) j.
  Proof.
    intros Hl Hj. rewrite (T_split A ik dd B Hl), nth_error_app2 by lia.
    replace (length (cb A) + j - length (cb A)) with j by lia. apply nth_error_app1. exact Hj.
  Qed.

  Lemma mk_fresh A ik dd B : il = A ++ (ik, dd) :: B -> data_at (mk dd) dd SOI.
  Proof. intros Hl. apply Hmk. rewrite Hl, map_app. apply in_or_app. right. left. reflexivity. Qed.

  Definition R (s : xst) (sp : pos) : Prop :=
    exists ip, index_at (x_index s) ip /\
      match x_data s with
      | None => (ip = SOI /\ sp = SOI) \/ (ip = EOI /\ sp = EOI)
      | Some d => exists A ik dd B j x, il = A ++ (ik, dd) :: B /\ ip = At (length A) /\
                    data_at d dd (At j) /\ nth_error (dl dd) j = Some x /\ sp = At (length (cb A) + j)
      end.

  Lemma R_obs s sp : R s sp -> x_kv K V I C dobs s = cobs T sp.
  Proof.
    intros (ip & Hi & H). unfold x_kv. destruct (x_data s) as [d|].
    - destruct H as (A & ik & dd & B & j & x & Hl & _ & Hd & Hx & ->).
      rewrite (refines_from_obs kcmp dstep dobs _ _ _ Hd). cbn [cobs].
      rewrite (T_nth A ik dd B j Hl) by (apply nth_error_Some; congruence). reflexivity.
    - destruct H as [[_ ->]|[_ ->]]; reflexivity.
  Qed.

  (* the two shapes of a related state: off both ends, or on the j-th pair of a block *)
  Lemma R_off i q : index_at i q -> q = SOI \/ q = EOI -> R {| x_index := i; x_data := None |} q.
  Proof. intros Hi Hq. exists q. split; [exact Hi|]. cbn. destruct Hq as [-> | ->]; auto. Qed.

  Lemma R_on i d A ik dd B j x : il = A ++ (ik, dd) :: B -> index_at i (At (length A)) ->
    data_at d dd (At j) -> nth_error (dl dd) j = Some x -> R {| x_index := i; x_data := Some d |} (At (length (cb A) + j)).
  Proof. intros Hl Hi Hd Hx. exists (At (length A)). split; [exact Hi|]. cbn. exists A, ik, dd, B, j, x. auto. Qed.

  Lemma R_at_some s g : R s (At g) -> is_some (cobs T (At g)) = true.
  Proof.
    intros (ip & _ & HR). destruct (x_data s) as [d|]; [|destruct HR as [[_ H]|[_ H]]; discriminate].
    destruct HR as (A & ik & dd & B & j & x & Hl & _ & _ & Hx & ->). cbn [cobs].
    rewrite (T_nth A ik dd B j Hl), Hx by (apply nth_error_Some; congruence). reflexivity.
  Qed.

  (* A, B: the index entries before and from the index iterator's position; cb = the pairs of their blocks.
     fwd_post / bwd_post: the outcome of a forward / backward search for the next non-empty block. *)
  Definition pos_start (A B : list (K * D)) : pos := match B with [] => EOI | _ => At (length A) end.

  Definition idx_next (f : nat) (i : I) : xres I C :=
    let i' := istep i MNext in
    if negb (is_some (iobs i')) then XOk {| x_index := i'; x_data := None |} false
    else x_next f {| x_index := i'; x_data := get_data i' |}.

  Lemma x_next_unfold f s : x_next (S f) s =
    match x_data s with
    | Some d => let d' := dstep d MNext in
                if is_some (dobs d') then XOk {| x_index := x_index s; x_data := Some d' |} true
                else idx_next f (x_index s)
    | None => idx_next f (x_index s)
    end.
  Proof. reflexivity. Qed.

  Definition fwd_post (r : xres I C) (A B : list (K * D)) : Prop :=
    match cb B with
    | [] => exists s', r = XOk s' false /\ R s' EOI
    | _ :: _ => exists s', r = XOk s' true /\ R s' (At (length (cb A)))
    end.

  Lemma next_land : forall B A ik dd i f, il = A ++ (ik, dd) :: B -> index_at i (At (length A)) ->
    length B < f -> fwd_post (x_next f {| x_index := i; x_data := Some (mk dd) |}) A ((ik, dd) :: B).
  Proof.
    induction B as [|[ik' dd'] B IH]; intros A ik dd i f Hl Hi Hf;
      (destruct f as [|f]; [lia|]); rewrite x_next_unfold; cbn [x_data x_index]; cbv zeta.
    - pose proof (mk_fresh A ik dd [] Hl) as Hd.
      pose proof (refines_from_step kcmp dstep dobs _ _ _ MNext Hd) as Hd'. cbn [cstep] in Hd'.
      rewrite (refines_from_obs kcmp dstep dobs _ _ _ Hd').
      unfold fwd_post. rewrite cb_cons. cbn [concat_blocks map concat]. rewrite app_nil_r.
      destruct (dl dd) as [|x r] eqn:Edl.
      + cbn [cfirst cobs is_some]. unfold idx_next.
        pose proof (rf_next_none kcmp istep iobs il i A (ik, dd) Hl Hi) as Hn.
        rewrite (rf_none kcmp istep iobs il _ EOI Hn (or_intror eq_refl)). cbn [is_some negb].
        eexists. split; [reflexivity|]. apply R_off; auto.
      + cbn [cfirst cobs nth_error is_some].
        eexists. split; [reflexivity|]. exists (At (length A)). split; [exact Hi|]. cbn [x_data].
        exists A, ik, dd, [], 0, x. rewrite Edl in *. repeat split; auto.
    - pose proof (mk_fresh A ik dd _ Hl) as Hd.
      pose proof (refines_from_step kcmp dstep dobs _ _ _ MNext Hd) as Hd'. cbn [cstep] in Hd'.
      rewrite (refines_from_obs kcmp dstep dobs _ _ _ Hd').
      unfold fwd_post. rewrite cb_cons.
      destruct (dl dd) as [|x r] eqn:Edl.
      + cbn [cfirst cobs is_some app]. unfold idx_next.
        pose proof (rf_next_some kcmp istep iobs il i A (ik, dd) (ik', dd') B Hl Hi) as Hn.
        assert (Hl' : il = (A ++ [(ik, dd)]) ++ (ik', dd') :: B) by (rewrite <- app_assoc; exact Hl).
        assert (Hn' : index_at (istep i MNext) (At (length (A ++ [(ik, dd)])))) by (rewrite app_length; cbn; rewrite Nat.add_1_r; exact Hn).
        rewrite (rf_obs_mid kcmp istep iobs il _ _ (ik', dd') B Hl' Hn'). cbn [is_some negb].
        unfold Indexed.get_data. rewrite (rf_obs_mid kcmp istep iobs il _ _ (ik', dd') B Hl' Hn').
        specialize (IH (A ++ [(ik, dd)]) ik' dd' (istep i MNext) f Hl' Hn' ltac:(cbn in Hf; lia)).
        unfold fwd_post in IH. rewrite cb_snoc, Edl, app_nil_r in IH. exact IH.
      + cbn [cfirst cobs nth_error is_some app].
        eexists. split; [reflexivity|]. exists (At (length A)). split; [exact Hi|]. cbn [x_data].
        exists A, ik, dd, ((ik', dd') :: B), 0, x. rewrite Edl in *. repeat split; auto.
  Qed.

  (* Next of the index from the position after the blocks A *)
  Lemma next_from_index B A i f : il = A ++ B -> index_at i (pos_end A) -> length B <= f ->
    fwd_post (idx_next f i) A B.
  Proof.
    intros Hl Hi Hf. unfold idx_next.
    pose proof (refines_from_step kcmp istep iobs _ _ _ MNext Hi) as Hn.
    destruct B as [|[ik dd] B].
    - assert (Hq : cstep kcmp il (pos_end A) MNext = EOI).
      { destruct (ListLemmas.list_snoc_cases A) as [->|(A0 & e & ->)].
        - cbn. rewrite Hl. reflexivity.
        - rewrite pos_end_snoc. apply cstep_next_ge. rewrite Hl, app_nil_r, app_length. cbn. lia. }
      rewrite Hq in Hn. rewrite (rf_none kcmp istep iobs il _ EOI Hn (or_intror eq_refl)). cbn [is_some negb].
      unfold fwd_post. cbn. eexists. split; [reflexivity|]. apply R_off; auto.
    - rewrite (cstep_next_pos_end kcmp il A (ik, dd) B Hl) in Hn. rewrite (rf_obs_mid kcmp istep iobs il _ A (ik, dd) B Hl Hn). cbn [is_some negb].
      unfold Indexed.get_data. rewrite (rf_obs_mid kcmp istep iobs il _ A (ik, dd) B Hl Hn).
      apply next_land; auto; cbn in Hf; lia.
  Qed.

  Definition idx_prev (f : nat) (i : I) : xres I C :=
    let i' := istep i MPrev in
    if negb (is_some (iobs i')) then XOk {| x_index := i'; x_data := None |} false
    else match get_data i' with
         | Some d =>
             let d' := dstep d MLast in
             if is_some (dobs d') then XOk {| x_index := i'; x_data := Some d' |} true
             else x_prev f {| x_index := i'; x_data := None |}
         | None => x_prev f {| x_index := i'; x_data := None |}
         end.

  Lemma x_prev_unfold f s : x_prev (S f) s =
    match x_data s with
    | Some d => let d' := dstep d MPrev in
                if is_some (dobs d') then XOk {| x_index := x_index s; x_data := Some d' |} true
                else idx_prev f (x_index s)
    | None => idx_prev f (x_index s)
    end.
  Proof. reflexivity. Qed.

  Lemma x_prev_none f i : x_prev (S f) {| x_index := i; x_data := None |} = idx_prev f i.
  Proof. reflexivity. Qed.

  Definition bwd_post (r : xres I C) (A : list (K * D)) : Prop :=
    match cb A with
    | [] => exists s', r = XOk s' false /\ R s' SOI
    | _ :: _ => exists s', r = XOk s' true /\ R s' (At (length (cb A) - 1))
    end.

  Lemma clast_obs (l : list (K * V)) : cobs l (clast l) = match l with [] => None | _ => nth_error l (length l - 1) end.
  Proof. unfold clast. destruct l as [|x l]; [reflexivity|]. cbn. rewrite Nat.sub_0_r. reflexivity. Qed.

  Lemma prev_from_none : forall A B i f, il = A ++ B -> index_at i (pos_start A B) -> length A < f ->
    bwd_post (x_prev f {| x_index := i; x_data := None |}) A.
  Proof.
    induction A as [|[ik dd] A IH] using rev_ind; intros B i f Hl Hi Hf;
      (destruct f as [|f]; [lia|]); rewrite x_prev_unfold; cbn [x_data x_index]; unfold idx_prev; cbv zeta;
      pose proof (refines_from_step kcmp istep iobs _ _ _ MPrev Hi) as Hn.
    - assert (Hq : cstep kcmp il (pos_start [] B) MPrev = SOI).
      { destruct B; cbn; [|reflexivity]. cbn in Hl. rewrite Hl. reflexivity. }
      rewrite Hq in Hn. rewrite (rf_none kcmp istep iobs il _ SOI Hn (or_introl eq_refl)). cbn [is_some negb].
      unfold bwd_post. cbn. eexists. split; [reflexivity|]. apply R_off; auto.
    - assert (Hq : cstep kcmp il (pos_start (A ++ [(ik, dd)]) B) MPrev = At (length A)).
      { destruct B; cbn [pos_start cstep].
        - unfold clast. rewrite Hl, app_nil_r, app_length. cbn. rewrite Nat.add_1_r. reflexivity.
        - rewrite app_length. cbn. rewrite Nat.add_1_r. reflexivity. }
      rewrite Hq in Hn.
      assert (Hl' : il = A ++ (ik, dd) :: B) by (rewrite Hl, <- app_assoc; reflexivity).
      rewrite (rf_obs_mid kcmp istep iobs il _ A (ik, dd) B Hl' Hn). cbn [is_some negb].
      unfold Indexed.get_data. rewrite (rf_obs_mid kcmp istep iobs il _ A (ik, dd) B Hl' Hn).
      pose proof (mk_fresh A ik dd B Hl') as Hd.
      pose proof (refines_from_step kcmp dstep dobs _ _ _ MLast Hd) as Hd'. cbn [cstep] in Hd'.
      rewrite (refines_from_obs kcmp dstep dobs _ _ _ Hd'), clast_obs.
      unfold bwd_post. rewrite cb_snoc.
      destruct (dl dd) as [|x r] eqn:Edl.
      + cbn [is_some]. rewrite app_nil_r.
        apply (IH ((ik, dd) :: B) (istep i MPrev) f Hl' Hn). rewrite app_length in Hf. cbn in Hf. lia.
      + set (j := length (x :: r) - 1).
        destruct (nth_error (x :: r) j) as [y|] eqn:Ey.
        2:{ apply nth_error_None in Ey. unfold j in Ey. cbn in Ey. lia. }
        cbn [is_some].
        destruct (cb A ++ x :: r) eqn:E; [destruct (cb A); discriminate|]. rewrite <- E.
        eexists. split; [reflexivity|]. exists (At (length A)). split; [exact Hn|]. cbn [x_data].
        exists A, ik, dd, B, j, y. rewrite Edl. repeat split; auto.
        * unfold clast in Hd'. cbn [length] in Hd'. unfold j. cbn [length]. replace (S (length r) - 1) with (length r) by lia. exact Hd'.
        * rewrite app_length. unfold j. cbn [length]. f_equal. lia.
  Qed.

  Variable fuel : nat.
  Hypothesis Hfuel : length il < fuel.
  Notation step_ok r sp' := (exists s' ret, r = XOk s' ret /\ ret = is_some (x_kv K V I C dobs s') /\ R s' sp').

  Lemma R_valid s sp : R s sp -> is_some (x_kv K V I C dobs s) = is_some (cobs T sp).
  Proof. intros H. rewrite (R_obs s sp H). reflexivity. Qed.

  Lemma post_ok {X} r (l : list X) off n sp' : cobs T off = None ->
    match l with
    | [] => exists s', r = XOk s' false /\ R s' off
    | _ :: _ => exists s', r = XOk s' true /\ R s' (At n)
    end ->
    sp' = (match l with [] => off | _ => At n end) -> step_ok r sp'.
  Proof.
    intros Ho H ->. destruct l.
    - destruct H as (s' & -> & HR). exists s', false. split; [reflexivity|]. split; [|exact HR].
      rewrite (R_valid _ _ HR), Ho. reflexivity.
    - destruct H as (s' & -> & HR). exists s', true. split; [reflexivity|]. split; [|exact HR].
      rewrite (R_valid _ _ HR). symmetry. exact (R_at_some _ _ HR).
  Qed.

  Lemma fwd_post_ok r A B sp' : fwd_post r A B ->
    sp' = (match cb B with [] => EOI | _ => At (length (cb A)) end) -> step_ok r sp'.
  Proof. exact (post_ok r (cb B) EOI (length (cb A)) sp' eq_refl). Qed.

  Lemma bwd_post_ok r A sp' : bwd_post r A ->
    sp' = (match cb A with [] => SOI | _ => At (length (cb A) - 1) end) -> step_ok r sp'.
  Proof. exact (post_ok r (cb A) SOI (length (cb A) - 1) sp' eq_refl). Qed.

  Lemma R_index s sp : R s sp -> exists ip, index_at (x_index s) ip.
  Proof. intros (ip & H & _). eauto. Qed.

  Lemma off_ok i q : index_at i q -> q = SOI \/ q = EOI -> step_ok (XOk {| x_index := i; x_data := None |} false) q.
  Proof. intros Hi Hq. eexists _, false. split; [reflexivity|]. split; [reflexivity|]. apply R_off; assumption. Qed.

  Lemma on_ok i d A ik dd B j x : il = A ++ (ik, dd) :: B -> index_at i (At (length A)) ->
    data_at d dd (At j) -> nth_error (dl dd) j = Some x ->
    step_ok (XOk {| x_index := i; x_data := Some d |} true) (At (length (cb A) + j)).
  Proof.
    intros Hl Hi Hd Hx. pose proof (R_on i d A ik dd B j x Hl Hi Hd Hx) as HR.
    eexists _, true. split; [reflexivity|]. split; [|exact HR]. rewrite (R_valid _ _ HR). symmetry. exact (R_at_some _ _ HR).
  Qed.

  Lemma step_next s sp : R s sp -> step_ok (x_next fuel s) (cstep kcmp T sp MNext).
  Proof.
    intros (ip & Hi & HR). assert (Hf1 : exists f, fuel = S f) by (exists (pred fuel); lia). destruct Hf1 as [f Ef]. rewrite Ef, x_next_unfold.
    destruct (x_data s) as [d|] eqn:Ed.
    - destruct HR as (A & ik & dd & B & j & x & Hl & -> & Hd & Hx & ->). cbv zeta.
      pose proof (refines_from_step kcmp dstep dobs _ _ _ MNext Hd) as Hd'.
      rewrite (refines_from_obs kcmp dstep dobs _ _ _ Hd').
      assert (Hj : j < length (dl dd)) by (apply nth_error_Some; congruence).
      pose proof (T_split A ik dd B Hl) as HT.
      destruct (Nat.lt_ge_cases (S j) (length (dl dd))) as [H|H].
      + rewrite cstep_next_lt in * by exact H. cbn [cobs].
        destruct (nth_error (dl dd) (S j)) as [y|] eqn:Ey; [|apply nth_error_None in Ey; lia].
        cbn [is_some]. rewrite cstep_next_lt by (rewrite HT, !app_length; lia).
        replace (S (length (cb A) + j)) with (length (cb A) + S j) by lia.
        exact (on_ok _ _ A ik dd B (S j) y Hl Hi Hd' Ey).
      + rewrite cstep_next_ge in * by exact H. cbn [cobs is_some].
        assert (Hl' : il = (A ++ [(ik, dd)]) ++ B) by (rewrite <- app_assoc; exact Hl).
        assert (Hi' : index_at (x_index s) (pos_end (A ++ [(ik, dd)]))) by (rewrite pos_end_snoc; exact Hi).
        apply (fwd_post_ok _ (A ++ [(ik, dd)]) B); [apply next_from_index; auto|].
        { rewrite Hl, app_length in Hfuel. cbn in Hfuel. lia. }
        rewrite cb_snoc, app_length.
        destruct (cb B) eqn:EB.
        * apply cstep_next_ge. rewrite HT, app_nil_r, app_length. lia.
        * rewrite cstep_next_lt by (rewrite HT, !app_length; cbn; lia). f_equal. lia.
    - destruct HR as [[-> ->]|[-> ->]].
      + apply (fwd_post_ok _ [] il); [apply next_from_index; auto; lia|].
        cbn [cstep concat_blocks map concat length]. destruct T; reflexivity.
      + unfold idx_next. pose proof (refines_from_step kcmp istep iobs _ _ _ MNext Hi) as Hn. cbn [cstep] in Hn.
        rewrite (rf_none kcmp istep iobs il _ EOI Hn (or_intror eq_refl)). cbn [is_some negb].
        exact (off_ok _ EOI Hn (or_intror eq_refl)).
  Qed.

  Lemma step_prev s sp : R s sp -> step_ok (x_prev fuel s) (cstep kcmp T sp MPrev).
  Proof.
    intros (ip & Hi & HR). assert (Hf1 : exists f, fuel = S f) by (exists (pred fuel); lia). destruct Hf1 as [f Ef]. rewrite Ef, x_prev_unfold.
    destruct (x_data s) as [d|] eqn:Ed.
    - destruct HR as (A & ik & dd & B & j & x & Hl & -> & Hd & Hx & ->). cbv zeta.
      pose proof (refines_from_step kcmp dstep dobs _ _ _ MPrev Hd) as Hd'.
      rewrite (refines_from_obs kcmp dstep dobs _ _ _ Hd').
      assert (Hj : j < length (dl dd)) by (apply nth_error_Some; congruence).
      pose proof (T_split A ik dd B Hl) as HT.
      destruct j as [|j'].
      + cbn [cstep cobs is_some] in *.
        rewrite <- (x_prev_none f (x_index s)).
        apply (bwd_post_ok _ A); [apply (prev_from_none A ((ik, dd) :: B)); auto|].
        { rewrite Hl, app_length in Hfuel. cbn in Hfuel. lia. }
        rewrite Nat.add_0_r. destruct (cb A) eqn:EA; cbn [length cstep]; [reflexivity|]. f_equal. lia.
      + cbn [cstep cobs] in *.
        destruct (nth_error (dl dd) j') as [y|] eqn:Ey; [|apply nth_error_None in Ey; lia].
        cbn [is_some]. replace (length (cb A) + S j') with (S (length (cb A) + j')) by lia. cbn [cstep].
        exact (on_ok _ _ A ik dd B j' y Hl Hi Hd' Ey).
    - destruct HR as [[-> ->]|[-> ->]].
      + unfold idx_prev. pose proof (refines_from_step kcmp istep iobs _ _ _ MPrev Hi) as Hn. cbn [cstep] in Hn.
        rewrite (rf_none kcmp istep iobs il _ SOI Hn (or_introl eq_refl)). cbn [is_some negb].
        exact (off_ok _ SOI Hn (or_introl eq_refl)).
      + rewrite <- (x_prev_none f (x_index s)).
        apply (bwd_post_ok _ il); [apply (prev_from_none il []); auto; [rewrite app_nil_r; reflexivity|lia]|].
        cbn [cstep]. unfold clast. destruct T; cbn [length]; [reflexivity|]. f_equal. lia.
  Qed.

  Lemma step_first s sp : R s sp -> step_ok (x_first K V D I C istep iobs mk dstep dobs fuel s) (cfirst T).
  Proof.
    intros (ip & Hi & _). unfold x_first.
    pose proof (refines_from_step kcmp istep iobs _ _ _ MFirst Hi) as Hn. cbn [cstep] in Hn.
    destruct (cons_cases il) as [Eil|([ik dd] & B & Eil)].
    - assert (Hq : cfirst il = EOI) by (rewrite Eil; reflexivity). rewrite Hq in Hn.
      rewrite (rf_none kcmp istep iobs _ _ EOI Hn (or_intror eq_refl)). cbn [is_some negb].
      assert (HT : T = []) by (rewrite Eil; reflexivity). rewrite HT.
      exact (off_ok _ EOI Hn (or_intror eq_refl)).
    - assert (Hl : il = [] ++ (ik, dd) :: B) by (rewrite Eil; reflexivity).
      assert (Hq : cfirst il = At (length (@nil (K * D)))) by (rewrite Eil; reflexivity). rewrite Hq in Hn.
      rewrite (rf_obs_mid kcmp istep iobs il _ [] (ik, dd) B Hl Hn). cbn [is_some negb].
      unfold Indexed.get_data. rewrite (rf_obs_mid kcmp istep iobs il _ [] (ik, dd) B Hl Hn).
      apply (fwd_post_ok _ [] ((ik, dd) :: B)); [apply next_land; auto|].
      { rewrite Eil in Hfuel. cbn in Hfuel. lia. }
      rewrite <- Eil. cbn [concat_blocks map concat length]. destruct T; reflexivity.
  Qed.

  Lemma step_last s sp : R s sp -> step_ok (x_last K V D I C istep iobs mk dstep dobs fuel s) (clast T).
  Proof.
    intros (ip & Hi & _). unfold x_last.
    pose proof (refines_from_step kcmp istep iobs _ _ _ MLast Hi) as Hn. cbn [cstep] in Hn.
    destruct (ListLemmas.list_snoc_cases il) as [Eil|(A & [ik dd] & Eil)].
    - assert (Hq : clast il = SOI) by (rewrite Eil; reflexivity). rewrite Hq in Hn.
      rewrite (rf_none kcmp istep iobs _ _ SOI Hn (or_introl eq_refl)). cbn [is_some negb].
      assert (HT : T = []) by (rewrite Eil; reflexivity). rewrite HT.
      exact (off_ok _ SOI Hn (or_introl eq_refl)).
    - assert (Hq : clast il = At (length A)).
      { unfold clast. rewrite Eil, app_length. cbn. rewrite Nat.add_1_r. reflexivity. }
      rewrite Hq in Hn.
      assert (Hl : il = A ++ (ik, dd) :: []) by exact Eil.
      rewrite (rf_obs_mid kcmp istep iobs il _ A (ik, dd) [] Hl Hn). cbn [is_some negb].
      unfold Indexed.get_data. rewrite (rf_obs_mid kcmp istep iobs il _ A (ik, dd) [] Hl Hn).
      pose proof (mk_fresh A ik dd [] Hl) as Hd.
      pose proof (refines_from_step kcmp dstep dobs _ _ _ MLast Hd) as Hd'. cbn [cstep] in Hd'.
      cbv zeta. rewrite (refines_from_obs kcmp dstep dobs _ _ _ Hd'), clast_obs.
      assert (HT : T = cb A ++ dl dd) by (rewrite Eil at 1; apply cb_snoc).
      destruct (dl dd) as [|x r] eqn:Edl.
      + cbn [is_some].
        apply (bwd_post_ok _ A); [apply (prev_from_none A [(ik, dd)]); auto|].
        { rewrite Eil, app_length in Hfuel. cbn in Hfuel. lia. }
        rewrite HT, app_nil_r. unfold clast. destruct (cb A); cbn [length]; [reflexivity|]. f_equal. lia.
      + set (j := length (x :: r) - 1).
        destruct (nth_error (x :: r) j) as [y|] eqn:Ey.
        2:{ apply nth_error_None in Ey. unfold j in Ey. cbn in Ey. lia. }
        cbn [is_some].
        assert (Hcl : clast T = At (length (cb A) + j)).
        { unfold clast. rewrite HT, app_length. unfold j. cbn [length].
          replace (length (cb A) + S (length r)) with (S (length (cb A) + (S (length r) - 1))) by lia. reflexivity. }
        rewrite Hcl. apply (on_ok _ _ A ik dd [] j y Hl Hn); [|rewrite Edl; exact Ey].
        unfold clast in Hd'. cbn [length] in Hd'. unfold j. cbn [length]. replace (S (length r) - 1) with (length r) by lia. rewrite Edl. exact Hd'.
  Qed.

  Lemma data_le_ikey ik dd x : In (ik, dd) il -> In x (dl dd) -> kcmp (fst x) ik <> Gt.
  Proof. intros H1 H2. destruct Hok as (_ & _ & H & _). apply (H (ik, dd) x H1 H2). Qed.

  Lemma ikey_lt_later A ik dd B ik' dd' x : il = A ++ (ik, dd) :: B -> In (ik', dd') B -> In x (dl dd') -> kcmp ik (fst x) = Lt.
  Proof. intros H1 H2 H3. destruct Hok as (_ & _ & _ & H). apply (H A (ik, dd) B x H1 (ik', dd') H2 H3). Qed.

  Lemma cb_in (l : list (K * D)) x : In x (cb l) <-> exists ik dd, In (ik, dd) l /\ In x (dl dd).
  Proof.
    unfold concat_blocks. rewrite in_concat. split.
    - intros (b & Hb & Hx). apply in_map_iff in Hb as ([ik dd] & <- & He). eauto.
    - intros (ik & dd & He & Hx). exists (dl dd). split; [|exact Hx]. apply in_map_iff. exists (ik, dd). auto.
  Qed.

  Lemma step_seek s sp k : R s sp -> step_ok (x_seek K V D I C istep iobs mk dstep dobs fuel s k) (find_ge kcmp k T 0).
  Proof.
    intros (ip & Hi & _). unfold x_seek.
    pose proof (refines_from_step kcmp istep iobs _ _ _ (MSeek k) Hi) as Hn. cbn [cstep] in Hn.
    destruct (find_ge kcmp k il 0) as [|i|] eqn:Ef.
    - exfalso. eapply find_ge_not_soi; eauto.
    - destruct (find_ge_at kcmp k il i Ef) as ([ik dd] & Hx & Hge & Hlt). cbn [fst] in Hge.
      destruct (nth_error_split il i Hx) as (A & B & Hl & HlenA). subst i.
      rewrite (rf_obs_mid kcmp istep iobs il _ A (ik, dd) B Hl Hn). cbn [is_some negb].
      unfold Indexed.get_data. rewrite (rf_obs_mid kcmp istep iobs il _ A (ik, dd) B Hl Hn).
      pose proof (T_split A ik dd B Hl) as HT.
      (* everything in the earlier blocks is below k *)
      assert (HA : forall x, In x (cb A) -> kcmp (fst x) k = Lt).
      { intros x Hxin. apply cb_in in Hxin as (ik' & dd' & He & Hxd).
        apply In_nth_error in He as [m Hm]. assert (m < length A) by (apply nth_error_Some; congruence).
        assert (Hlt' : kcmp ik' k = Lt).
        { apply (Hlt m (ik', dd')); auto. rewrite Hl, nth_error_app1; auto. }
        eapply (f_le_lt_trans kcmp ok); [|exact Hlt'].
        apply (data_le_ikey ik' dd'); [|exact Hxd]. rewrite Hl. apply in_or_app. left. eapply nth_error_In; eauto. }
      pose proof (mk_fresh A ik dd B Hl) as Hd.
      pose proof (refines_from_step kcmp dstep dobs _ _ _ (MSeek k) Hd) as Hd'. cbn [cstep] in Hd'.
      cbv zeta. rewrite (refines_from_obs kcmp dstep dobs _ _ _ Hd').
      destruct (find_ge kcmp k (dl dd) 0) as [|j|] eqn:Efd.
      + exfalso. eapply find_ge_not_soi; eauto.
      + destruct (find_ge_at kcmp k (dl dd) j Efd) as (y & Hy & _ & _). cbn [cobs]. rewrite Hy. cbn [is_some].
        assert (Hspec : find_ge kcmp k T 0 = At (length (cb A) + j)).
        { rewrite HT, (find_ge_app_lt kcmp) by exact HA. cbn [plus].
          apply find_ge_app_found. rewrite find_ge_shift, Efd. reflexivity. }
        rewrite Hspec. exact (on_ok _ _ A ik dd B j y Hl Hn Hd' Hy).
      + cbn [cobs is_some].
        pose proof (find_ge_eoi kcmp k (dl dd) Efd) as Hdd.
        assert (Hf1 : exists f, fuel = S f) by (exists (pred fuel); lia). destruct Hf1 as [f Efu]. rewrite Efu, x_next_unfold. cbn [x_data x_index].
        assert (Hl' : il = (A ++ [(ik, dd)]) ++ B) by (rewrite <- app_assoc; exact Hl).
        assert (Hi' : index_at (istep (x_index s) (MSeek k)) (pos_end (A ++ [(ik, dd)]))) by (rewrite pos_end_snoc; exact Hn).
        apply (fwd_post_ok _ (A ++ [(ik, dd)]) B); [apply next_from_index; auto|].
        { rewrite Hl, app_length in Hfuel. cbn in Hfuel. lia. }
        rewrite cb_snoc, HT, app_assoc.
        rewrite (find_ge_app_lt kcmp).
        2:{ intros x Hxin. apply in_app_or in Hxin as [Hxin|Hxin]; [apply HA; exact Hxin|apply Hdd; exact Hxin]. }
        cbn [plus]. destruct (cb B) as [|y rest] eqn:EB; [reflexivity|].
        apply find_ge_head.
        assert (Hyin : In y (cb B)) by (rewrite EB; left; reflexivity).
        apply cb_in in Hyin as (ik' & dd' & He & Hyd).
        pose proof (ikey_lt_later A ik dd B ik' dd' y Hl He Hyd) as Hlty.
        intros Hc. apply Hge. eapply (o_trans kcmp ok); eauto.
    - rewrite (rf_none kcmp istep iobs _ _ EOI Hn (or_intror eq_refl)). cbn [is_some negb].
      assert (Hspec : find_ge kcmp k T 0 = EOI).
      { apply (seek_char_eoi kcmp). intros x Hxin. apply cb_in in Hxin as (ik & dd & He & Hxd).
        eapply (f_le_lt_trans kcmp ok); [apply (data_le_ikey ik dd); eauto|].
        apply (find_ge_eoi kcmp k il Ef (ik, dd) He). }
      rewrite Hspec. exact (off_ok _ EOI Hn (or_intror eq_refl)).
  Qed.

  Theorem indexed_sim s sp m : R s sp ->
    exists s' ret, x_step K V D I C istep iobs mk dstep dobs fuel s m = XOk s' ret /\ R s' (cstep kcmp T sp m) /\
                   (ret, x_kv K V I C dobs s') = out_of (cobs T (cstep kcmp T sp m)).
  Proof.
    intros HR.
    assert (H : step_ok (x_step K V D I C istep iobs mk dstep dobs fuel s m) (cstep kcmp T sp m)).
    { destruct m; cbn [x_step cstep].
      - apply (step_first s sp HR).
      - apply (step_last s sp HR).
      - apply (step_seek s sp k HR).
      - apply (step_next s sp HR).
      - apply (step_prev s sp HR). }
    destruct H as (s' & ret & Hr & Hret & HR'). exists s', ret. split; [exact Hr|]. split; [exact HR'|].
    unfold out_of. rewrite Hret, (R_obs s' _ HR'). reflexivity.
  Qed.

  Lemma indexed_run_from s sp ms : R s sp ->
    x_run K V D I C istep iobs mk dstep dobs fuel s ms = Some (run_from kcmp T sp ms).
  Proof.
    revert s sp. induction ms as [|m ms IH]; intros s sp HR; cbn [x_run run_from]; [reflexivity|].
    destruct (indexed_sim s sp m HR) as (s' & ret & Hr & HR' & Hout).
    rewrite Hr, (IH s' _ HR'), Hout. reflexivity.
  Qed.

  Lemma indexed_refines_from s sp : R s sp ->
    refines_from kcmp (indexed_step K V D I C istep iobs mk dstep dobs fuel) (x_kv K V I C dobs) s T sp.
  Proof.
    apply (refines_by_sim kcmp _ _ T R R_obs). intros x q m HR.
    destruct (indexed_sim x q m HR) as (s' & ret & Hr & HR' & _). unfold indexed_step. rewrite Hr. exact HR'.
  Qed.
End IndexedProofs.

Theorem indexed_refines (K V D I C : Type) (kcmp : K -> K -> comparison)
  (istep : I -> move K -> I) (iobs : I -> option (K * D)) (mk : D -> C)
  (dstep : C -> move K -> C) (dobs : C -> option (K * V))
  (il : list (K * D)) (dl : D -> list (K * V)) (i0 : I) (fuel : nat) :
  ord_ok kcmp -> index_ok kcmp il dl ->
  refines kcmp istep iobs i0 il ->
  (forall d, In d (map snd il) -> refines kcmp dstep dobs (mk d) (dl d)) ->
  length il < fuel ->
  forall ms, x_run K V D I C istep iobs mk dstep dobs fuel (x_init i0) ms =
             Some (run_cursor kcmp (concat_blocks il dl) ms).
Proof.
  intros ok Hok Hi Hmk Hf ms.
  apply (indexed_run_from K V D I C kcmp ok istep iobs mk dstep dobs il dl Hok Hmk fuel Hf).
  exists SOI. split; [exact Hi|]. cbn. left. auto.
Qed.

Lemma index_ok_tail {K V D} (kcmp : K -> K -> comparison) (e : K * D) il (dl : D -> list (K * V)) :
  index_ok kcmp (e :: il) dl -> index_ok kcmp il dl.
Proof.
  intros (H1 & H2 & H3 & H4). split; [|split; [|split]].
  - apply (sorted_cons_inv kcmp) in H1. tauto.
  - intros e' He'. apply H2. right. exact He'.
  - intros e' x He'. apply H3. right. exact He'.
  - intros a e1 b x Hl e' He' Hx. apply (H4 (e :: a) e1 b x (f_equal (cons e) Hl) e' He' Hx).
Qed.

(* so an indexed iterator can in turn be a child of a merged iterator, as the levels of a DB are *)
Lemma concat_blocks_sorted {K V D} (kcmp : K -> K -> comparison) (ok : ord_ok kcmp) il (dl : D -> list (K * V)) :
  index_ok kcmp il dl -> sorted_kv kcmp (concat_blocks il dl).
Proof.
  induction il as [|[ik dd] il IH]; intros Hok; [constructor|].
  pose proof (index_ok_tail kcmp (ik, dd) il dl Hok) as Hok'.
  destruct Hok as (H1 & H2 & H3 & H4).
  change (concat_blocks ((ik, dd) :: il) dl) with (dl dd ++ concat_blocks il dl).
  apply (sorted_app kcmp).
  - apply (H2 (ik, dd)). left. reflexivity.
  - apply IH. exact Hok'.
  - intros x y Hx Hy. unfold concat_blocks in Hy. apply in_concat in Hy as (b & Hb & Hy).
    apply in_map_iff in Hb as (e' & <- & He').
    eapply (f_le_lt_trans kcmp ok); [apply (H3 (ik, dd) x); [left; reflexivity|exact Hx]|].
    apply (H4 [] (ik, dd) il y eq_refl e' He' Hy).
Qed.

Theorem indexed_is_cursor (K V D I C : Type) (kcmp : K -> K -> comparison)
  (istep : I -> move K -> I) (iobs : I -> option (K * D)) (mk : D -> C)
  (dstep : C -> move K -> C) (dobs : C -> option (K * V))
  (il : list (K * D)) (dl : D -> list (K * V)) (i0 : I) (fuel : nat) :
  ord_ok kcmp -> index_ok kcmp il dl ->
  refines kcmp istep iobs i0 il ->
  (forall d, In d (map snd il) -> refines kcmp dstep dobs (mk d) (dl d)) ->
  length il < fuel ->
  refines kcmp (indexed_step K V D I C istep iobs mk dstep dobs fuel) (x_kv K V I C dobs) (x_init i0)
          (concat_blocks il dl).
Proof.
  intros ok Hok Hi Hmk Hf.
  apply (indexed_refines_from K V D I C kcmp ok istep iobs mk dstep dobs il dl Hok Hmk fuel Hf).
  exists SOI. split; [exact Hi|]. cbn. left. auto.
Qed.
