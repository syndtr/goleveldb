(* Iter/InvertedProofs.v — what an inverted or empty range [Start, Limit) with Start >= Limit yields:
   nothing.  The view is empty, so every call of every walk returns false with nil key and value.
   (goleveldb before the repair 0182674: DB.NewIterator(&util.Range{Start, Limit}) with Start > Limit
   panics in tFiles.newIndexIterator - slice bounds out of range - once a sorted level holds tables between
   the bounds.  With the repair limit is raised to start and the level contributes nothing.) *)
From GL Require Import Iter.CursorProofs Iter.DBIter Iter.LiveProofs.

Lemma in_range_inverted (c : comparer) (ok : comparer_ok c) (start limit k : bytes) :
  cmp c start limit <> Lt -> in_range c (Some start) (Some limit) k = false.
Proof.
  intros H. unfold in_range.
  destruct (cmp c k start) eqn:E1; cbn [andb]; try reflexivity.
  - apply (cmp_eq c ok) in E1. subst k. destruct (cmp c start limit); congruence.
  - destruct (cmp c k limit) eqn:E2; try reflexivity. exfalso.
    (* start < k < limit *)
    pose proof (f_gt_lt (cmp c) (cmp_ord_ok c ok) k start) as G. apply G in E1.
    apply H. exact (cmp_trans c ok _ _ _ E1 E2).
Qed.

Theorem inverted_range_empty (c : comparer) (ok : comparer_ok c) (start limit : bytes) (l : list (bytes * bytes)) :
  cmp c start limit <> Lt ->
  filter (fun kv => in_range c (Some start) (Some limit) (fst kv)) l = [].
Proof.
  intros H. induction l as [|x l IH]; [reflexivity|]. cbn [filter]. rewrite (in_range_inverted c ok _ _ _ H). exact IH.
Qed.

Lemma run_from_nil {K V} (f : K -> K -> comparison) (ms : list (move K)) : forall q,
  run_from f ([] : list (K * V)) q ms = map (fun _ => (false, None)) ms.
Proof.
  induction ms as [|m ms IH]; intros q; [reflexivity|]. cbn [run_from map]. rewrite IH. f_equal.
  unfold out_of. destruct (cobs [] (cstep f [] q m)) as [x|] eqn:E; [|reflexivity].
  exfalso. destruct (cstep f [] q m) as [|i|]; cbn [cobs] in E; try discriminate. destruct i; discriminate.
Qed.

Theorem run_cursor_nil {K V} (f : K -> K -> comparison) (ms : list (move K)) :
  run_cursor f ([] : list (K * V)) ms = map (fun _ => (false, None)) ms.
Proof. apply run_from_nil. Qed.
