(* Iter/DBIterCong.v — dbIter (Iter/DBIter.v) run over two raw iterators side by side (proof file).
   Section One: one iteration of each loop of dbIter as an equation (also what Iter/DBIterProofs.v reasons with).
   Section LockStep: if every allowed call keeps a relation Rc between the raw iterators or leaves it through an
   escape Stop, after which the first raw iterator shows nothing, the two dbIter machines stay in lock step call
   by call, or the first returns with its raw iterator stopped (step_lock).  The escape is a raw iterator that
   fails (Iter/DBIterErrProofs.v).
   Section Cong, no escape: raw iterators that show the same thing after every sequence of the calls dbIter can
   issue (First, Last, Next, Prev, Seek with a key of a class P) drive dbIter to the same outputs, panics and fuel
   exhaustion, for every call sequence whose Seek keys produce probes in P.  Used at the boundary between encoded
   and parsed internal keys (Lsm/IterPathProofs.v): P = the keys whose encoding parses back. *)
From GL Require Import Iter.DBIter.
Close Scope N_scope.

Section One.
  Variable c : comparer.
  Variable p : kparams.
  Variable C : Type.
  Variable chstep : C -> move ikey -> C.
  Variable chobs : C -> option entry.
  Variable seq : N.
  Variable strict : bool.

  Notation st := (dbstate C).
  Notation next_loop := (next_loop c p C chstep chobs seq strict).
  Notation prev_loop := (prev_loop c p C chstep chobs seq strict).
  Notation prev_ := (prev_ c p C chstep chobs seq strict).
  Notation rewind := (rewind c p C chstep chobs seq strict).
  Notation parse_cur := (parse_cur p C chobs).

  Definition adv_ (f : nat) (s : st) : res C :=
    let ch' := chstep (d_child s) MNext in
    if is_some (chobs ch') then next_loop f (set_child C s ch')
    else Ok (set_dir C (set_child C s ch') DirEOI) false.

  Lemma next_unfold f s : next_loop (S f) s =
    match parse_cur (d_child s) with
    | Some (ukey, seq', kt, v) =>
        if (seq' <=? seq)%N then
          if (kt =? keyTypeDel p)%N then adv_ f (set_dir C (set_key C s ukey) DirForward)
          else if (kt =? keyTypeVal p)%N then
            if is_dir_soi (d_dir s) || is_gt (cmp c ukey (d_key s)) then
              Ok (set_dir C (set_kv C s ukey v) DirForward) true
            else adv_ f s
          else adv_ f s
        else adv_ f s
    | None => if strict then Ok (set_err C s) false else adv_ f s
    end.
  Proof. reflexivity. Qed.

  Definition back_ (f : nat) (s : st) (del : bool) : res C :=
    let ch' := chstep (d_child s) MPrev in
    if is_some (chobs ch') then prev_loop f (set_child C s ch') del
    else prev_finish C (set_child C s ch') del.

  Lemma prev_unfold f s del : prev_loop (S f) s del =
    match parse_cur (d_child s) with
    | Some (ukey, seq', kt, v) =>
        if (seq' <=? seq)%N then
          if negb del && is_lt (cmp c ukey (d_key s)) then Ok s true
          else
            let del' := (kt =? keyTypeDel p)%N in
            back_ f (if del' then s else set_kv C s ukey v) del'
        else back_ f s del
    | None => if strict then Ok (set_err C s) false else back_ f s del
    end.
  Proof. reflexivity. Qed.

  Lemma rewind_unfold' f s : rewind (S f) s =
    let ch' := chstep (d_child s) MPrev in
    let s' := set_child C s ch' in
    if is_some (chobs ch') then
      match parse_cur ch' with
      | Some (ukey, _, _, _) => if is_lt (cmp c ukey (d_key s)) then prev_ (S f) s' else rewind f s'
      | None => if strict then Ok (set_err C s') false else rewind f s'
      end
    else Ok (set_dir C s' DirSOI) false.
  Proof. reflexivity. Qed.
End One.

Section LockStep.
  Variable c : comparer.
  Variable p : kparams.
  Variables C1 C2 : Type.
  Variable step1 : C1 -> move ikey -> C1.
  Variable obs1 : C1 -> option entry.
  Variable step2 : C2 -> move ikey -> C2.
  Variable obs2 : C2 -> option entry.
  Variable seq : N.
  Variable strict : bool.

  (* Rc: the two raw iterators are in step.  Stop: the first has left the second for good, and shows nothing.
     okm: the calls that keep them in step unless the first stops. *)
  Variable Rc : C1 -> C2 -> Prop.
  Variable Stop : C1 -> Prop.
  Variable okm : move ikey -> Prop.
  Hypothesis Rc_obs : forall x1 x2, Rc x1 x2 -> obs1 x1 = obs2 x2.
  Hypothesis Rc_step : forall x1 x2 m, Rc x1 x2 -> okm m -> Rc (step1 x1 m) (step2 x2 m) \/ Stop (step1 x1 m).
  Hypothesis Stop_obs : forall x, Stop x -> obs1 x = None.
  Hypothesis okm_plain : okm MFirst /\ okm MLast /\ okm MNext /\ okm MPrev.

  Definition srel (s1 : dbstate C1) (s2 : dbstate C2) : Prop :=
    Rc (d_child s1) (d_child s2) /\ d_dir s1 = d_dir s2 /\ d_key s1 = d_key s2 /\
    d_value s1 = d_value s2 /\ d_err s1 = d_err s2.

  Inductive rrel : res C1 -> res C2 -> Prop :=
  | rr_lock s1 s2 b : srel s1 s2 -> rrel (Ok s1 b) (Ok s2 b)
  | rr_stop s1 b r2 : Stop (d_child s1) -> rrel (Ok s1 b) r2
  | rr_fuel : rrel OutOfFuel OutOfFuel
  | rr_panic : rrel Panic Panic.

  Ltac srel_tac := unfold srel, set_child, set_dir, set_key, set_kv, set_err in *;
    cbn [d_child d_dir d_key d_value d_err] in *; intuition congruence.

  Lemma srel_child s1 s2 x1 x2 : srel s1 s2 -> Rc x1 x2 -> srel (set_child C1 s1 x1) (set_child C2 s2 x2).
  Proof. intros; srel_tac. Qed.
  Lemma srel_dir s1 s2 d : srel s1 s2 -> srel (set_dir C1 s1 d) (set_dir C2 s2 d).
  Proof. intros; srel_tac. Qed.
  Lemma srel_key s1 s2 k : srel s1 s2 -> srel (set_key C1 s1 k) (set_key C2 s2 k).
  Proof. intros; srel_tac. Qed.
  Lemma srel_kv s1 s2 k v : srel s1 s2 -> srel (set_kv C1 s1 k v) (set_kv C2 s2 k v).
  Proof. intros; srel_tac. Qed.
  Lemma srel_err s1 s2 : srel s1 s2 -> srel (set_err C1 s1) (set_err C2 s2).
  Proof. intros; srel_tac. Qed.

  Lemma srel_db_kv s1 s2 : srel s1 s2 -> db_kv s1 = db_kv s2.
  Proof. intros (_ & E1 & E2 & E3 & E4). unfold db_kv, db_valid. rewrite E1, E2, E3, E4. reflexivity. Qed.

  Lemma parse_lock s1 s2 : srel s1 s2 -> parse_cur p C1 obs1 (d_child s1) = parse_cur p C2 obs2 (d_child s2).
  Proof. intros H. unfold parse_cur. rewrite (Rc_obs _ _ (proj1 H)). reflexivity. Qed.

  (* Every call dbIter makes on its raw iterator is followed by a test of what it shows: in step the two
     tests agree, and a stopped raw iterator shows nothing, so the first machine takes the exit r1'. *)
  Lemma call_lock s1 s2 m (r1 r1' : res C1) (r2 r2' : res C2) : srel s1 s2 -> okm m ->
    let t1 := set_child C1 s1 (step1 (d_child s1) m) in
    let t2 := set_child C2 s2 (step2 (d_child s2) m) in
    (srel t1 t2 -> rrel r1 r2) -> (srel t1 t2 -> rrel r1' r2') -> (Stop (d_child t1) -> forall r, rrel r1' r) ->
    rrel (if is_some (obs1 (step1 (d_child s1) m)) then r1 else r1')
         (if is_some (obs2 (step2 (d_child s2) m)) then r2 else r2').
  Proof.
    intros H Hm t1 t2 Hin Hout Hstop. destruct (Rc_step _ _ m (proj1 H) Hm) as [Hc|Hs].
    - assert (Ht : srel t1 t2) by (apply srel_child; assumption).
      rewrite (Rc_obs _ _ Hc). destruct (is_some _); auto.
    - rewrite (Stop_obs _ Hs). apply Hstop. exact Hs.
  Qed.

  Notation NL1 := (next_loop c p C1 step1 obs1 seq strict).
  Notation NL2 := (next_loop c p C2 step2 obs2 seq strict).
  Notation PL1 := (prev_loop c p C1 step1 obs1 seq strict).
  Notation PL2 := (prev_loop c p C2 step2 obs2 seq strict).

  Lemma next_lock : forall f s1 s2, srel s1 s2 -> rrel (NL1 f s1) (NL2 f s2).
  Proof.
    induction f as [|f IH]; intros s1 s2 H; [apply rr_fuel|].
    assert (A : forall t1 t2, srel t1 t2 ->
              rrel (adv_ c p C1 step1 obs1 seq strict f t1) (adv_ c p C2 step2 obs2 seq strict f t2)).
    { intros t1 t2 Ht. apply call_lock; [exact Ht|apply okm_plain|apply IH| |].
      - intros Ht'. apply rr_lock, srel_dir, Ht'.
      - intros Hs r. apply rr_stop, Hs. }
    rewrite !next_unfold, (parse_lock _ _ H).
    destruct (parse_cur p C2 obs2 (d_child s2)) as [[[[ukey seq'] kt] v]|].
    - destruct (seq' <=? seq)%N; [|apply A; exact H].
      destruct (kt =? keyTypeDel p)%N; [apply A, srel_dir, srel_key, H|].
      destruct (kt =? keyTypeVal p)%N; [|apply A; exact H].
      pose proof H as (_ & Ed & Ek & _). rewrite Ed, Ek.
      destruct (is_dir_soi (d_dir s2) || is_gt (cmp c ukey (d_key s2))); [|apply A; exact H].
      apply rr_lock, srel_dir, srel_kv, H.
    - destruct strict; [apply rr_lock, srel_err, H|apply A; exact H].
  Qed.

  Lemma finish_lock s1 s2 del : srel s1 s2 -> rrel (prev_finish C1 s1 del) (prev_finish C2 s2 del).
  Proof. intros H. unfold prev_finish. destruct del; apply rr_lock; [apply srel_dir|]; exact H. Qed.

  Lemma finish_stop s1 del r : Stop (d_child s1) -> rrel (prev_finish C1 s1 del) r.
  Proof. intros H. unfold prev_finish. destruct del; apply rr_stop; exact H. Qed.

  Lemma prevl_lock : forall f s1 s2 del, srel s1 s2 -> rrel (PL1 f s1 del) (PL2 f s2 del).
  Proof.
    induction f as [|f IH]; intros s1 s2 del H; [apply rr_fuel|].
    assert (B : forall t1 t2 dl, srel t1 t2 ->
              rrel (back_ c p C1 step1 obs1 seq strict f t1 dl) (back_ c p C2 step2 obs2 seq strict f t2 dl)).
    { intros t1 t2 dl Ht. apply call_lock; [exact Ht|apply okm_plain|apply IH|apply finish_lock|].
      intros Hs r. apply finish_stop, Hs. }
    rewrite !prev_unfold, (parse_lock _ _ H).
    destruct (parse_cur p C2 obs2 (d_child s2)) as [[[[ukey seq'] kt] v]|].
    - destruct (seq' <=? seq)%N; [|apply B; exact H].
      assert (Ek : d_key s1 = d_key s2) by apply H. rewrite Ek.
      destruct (negb del && is_lt (cmp c ukey (d_key s2))); [apply rr_lock, H|].
      cbv zeta. destruct (kt =? keyTypeDel p)%N; apply B; [exact H|apply srel_kv, H].
    - destruct strict; [apply rr_lock, srel_err, H|apply B; exact H].
  Qed.

  Lemma prev__lock f s1 s2 : srel s1 s2 ->
    rrel (prev_ c p C1 step1 obs1 seq strict f s1) (prev_ c p C2 step2 obs2 seq strict f s2).
  Proof.
    intros H. apply (srel_dir _ _ DirBackward) in H. unfold prev_. cbv zeta.
    rewrite (Rc_obs _ _ (proj1 H)). destruct (is_some _); [apply prevl_lock|apply finish_lock]; exact H.
  Qed.

  Lemma rewind_lock : forall f s1 s2, srel s1 s2 ->
    rrel (rewind c p C1 step1 obs1 seq strict f s1) (rewind c p C2 step2 obs2 seq strict f s2).
  Proof.
    induction f as [|f IH]; intros s1 s2 H; [apply rr_fuel|].
    rewrite !rewind_unfold'. apply call_lock; [exact H|apply okm_plain| |intros H'; apply rr_lock, srel_dir, H'|].
    - intros H'. pose proof (parse_lock _ _ H') as Ep. cbn [set_child d_child] in Ep. rewrite Ep.
      destruct (parse_cur p C2 obs2 _) as [[[[ukey seq'] kt] v]|].
      + assert (Ek : d_key s1 = d_key s2) by apply H. rewrite Ek.
        destruct (is_lt (cmp c ukey (d_key s2))); [apply prev__lock|apply IH]; exact H'.
      + destruct strict; [apply rr_lock, srel_err, H'|apply IH; exact H'].
    - intros Hs r. apply rr_stop, Hs.
  Qed.

  Lemma first_lock f s1 s2 : srel s1 s2 ->
    rrel (db_first c p C1 step1 obs1 seq strict f s1) (db_first c p C2 step2 obs2 seq strict f s2).
  Proof.
    intros H. unfold db_first. assert (Ee : d_err s1 = d_err s2) by apply H. rewrite Ee.
    destruct (d_err s2); [apply rr_lock, H|].
    apply call_lock; [exact H|apply okm_plain| | |].
    - intros H'. apply next_lock, srel_dir, H'.
    - intros H'. apply rr_lock, srel_dir, H'.
    - intros Hs r. apply rr_stop, Hs.
  Qed.

  Lemma last_lock f s1 s2 : srel s1 s2 ->
    rrel (db_last c p C1 step1 obs1 seq strict f s1) (db_last c p C2 step2 obs2 seq strict f s2).
  Proof.
    intros H. unfold db_last. assert (Ee : d_err s1 = d_err s2) by apply H. rewrite Ee.
    destruct (d_err s2); [apply rr_lock, H|].
    apply call_lock; [exact H|apply okm_plain|apply prev__lock| |].
    - intros H'. apply rr_lock, srel_dir, H'.
    - intros Hs r. apply rr_stop, Hs.
  Qed.

  Definition ukey_ok (k : bytes) : Prop :=
    match make_ikey p k seq (keyTypeSeek p) with MkOk ik => okm (MSeek ik) | MkPanic => True end.
  Definition umove_ok (m : move bytes) : Prop := match m with MSeek k => ukey_ok k | _ => True end.

  Lemma seek_lock f s1 s2 k : srel s1 s2 -> ukey_ok k ->
    rrel (db_seek c p C1 step1 obs1 seq strict f s1 k) (db_seek c p C2 step2 obs2 seq strict f s2 k).
  Proof.
    intros H Hk. unfold db_seek. assert (Ee : d_err s1 = d_err s2) by apply H. rewrite Ee.
    destruct (d_err s2); [apply rr_lock, H|].
    unfold ukey_ok in Hk. destruct (make_ikey p k seq (keyTypeSeek p)) as [ik|]; [|apply rr_panic].
    apply call_lock; [exact H|exact Hk| | |].
    - intros H'. apply next_lock, srel_dir, H'.
    - intros H'. apply rr_lock, srel_dir, H'.
    - intros Hs r. apply rr_stop, Hs.
  Qed.

  Lemma dbnext_lock f s1 s2 : srel s1 s2 ->
    rrel (db_next c p C1 step1 obs1 seq strict f s1) (db_next c p C2 step2 obs2 seq strict f s2).
  Proof.
    intros H. unfold db_next. pose proof H as (_ & Ed & _ & _ & Ee). rewrite Ed, Ee.
    (* every direction but dirEOI: the error test, then iter.Next() and its test *)
    destruct (d_dir s2); [|apply rr_lock, H| |];
      (destruct (d_err s2); [apply rr_lock, H|]); rewrite !Bool.if_negb;
      (apply call_lock; [exact H|apply okm_plain| |intros H'; apply rr_lock, srel_dir, H'|intros Hs r; apply rr_stop, Hs]);
      intros H'.
    - apply next_lock, H'.
    - (* dirBackward: the second iter.Next() *)
      apply (call_lock _ _ MNext _ _ _ _ H'); [apply okm_plain|apply next_lock| |].
      + intros H''. apply rr_lock, srel_dir, H''.
      + intros Hs r. apply rr_stop, Hs.
    - apply next_lock, H'.
  Qed.

  Lemma dbprev_lock f s1 s2 : srel s1 s2 ->
    rrel (db_prev c p C1 step1 obs1 seq strict f s1) (db_prev c p C2 step2 obs2 seq strict f s2).
  Proof.
    intros H. unfold db_prev. pose proof H as (_ & Ed & _ & _ & Ee). rewrite Ed, Ee.
    destruct (d_dir s2); [apply rr_lock, H| | |]; (destruct (d_err s2); [apply rr_lock, H|]).
    - apply last_lock, H.
    - apply prev__lock, H.
    - apply rewind_lock, H.
  Qed.

  Theorem step_lock f s1 s2 m : srel s1 s2 -> umove_ok m ->
    rrel (db_step c p C1 step1 obs1 seq strict f s1 m) (db_step c p C2 step2 obs2 seq strict f s2 m).
  Proof.
    intros H Hm. destruct m; cbn [db_step].
    - apply first_lock, H.
    - apply last_lock, H.
    - apply seek_lock; assumption.
    - apply dbnext_lock, H.
    - apply dbprev_lock, H.
  Qed.
End LockStep.

Section Cong.
  Variable c : comparer.
  Variable p : kparams.
  Variables C1 C2 : Type.
  Variable step1 : C1 -> move ikey -> C1.
  Variable obs1 : C1 -> option entry.
  Variable step2 : C2 -> move ikey -> C2.
  Variable obs2 : C2 -> option entry.
  Variable seq : N.
  Variable strict : bool.
  Variable P : ikey -> Prop.

  Definition move_in (m : move ikey) : Prop := match m with MSeek k => P k | _ => True end.

  (* the two raw iterators are indistinguishable by calls in the class *)
  Definition sim (x1 : C1) (x2 : C2) : Prop :=
    forall ms, Forall move_in ms -> obs1 (bb_run step1 x1 ms) = obs2 (bb_run step2 x2 ms).

  Lemma sim_obs x1 x2 : sim x1 x2 -> obs1 x1 = obs2 x2.
  Proof. intros H. exact (H [] (Forall_nil _)). Qed.

  Lemma sim_step x1 x2 m : sim x1 x2 -> move_in m -> sim (step1 x1 m) (step2 x2 m).
  Proof. intros H Hm ms Hms. exact (H (m :: ms) (Forall_cons _ Hm Hms)). Qed.

  (* a Seek key is acceptable when the probe dbIter builds from it is in the class *)
  Definition key_in (k : bytes) : Prop :=
    match make_ikey p k seq (keyTypeSeek p) with MkOk ik => P ik | MkPanic => True end.

  Definition umove_in (m : move bytes) : Prop := match m with MSeek k => key_in k | _ => True end.

  Notation srel := (srel C1 C2 sim).

  Lemma step_cong f s1 s2 m : srel s1 s2 -> umove_in m ->
    rrel C1 C2 sim (fun _ => False) (db_step c p C1 step1 obs1 seq strict f s1 m) (db_step c p C2 step2 obs2 seq strict f s2 m).
  Proof.
    apply (step_lock c p C1 C2 step1 obs1 step2 obs2 seq strict sim (fun _ => False) move_in sim_obs).
    - intros x1 x2 m' H Hm. left. apply sim_step; assumption.
    - intros x [].
    - repeat split.
  Qed.

  Theorem db_run_cong f : forall ms s1 s2, srel s1 s2 -> Forall umove_in ms ->
    db_run c p C1 step1 obs1 seq strict f s1 ms = db_run c p C2 step2 obs2 seq strict f s2 ms.
  Proof.
    induction ms as [|m ms IH]; intros s1 s2 H Hms; [reflexivity|]. cbn [db_run].
    inversion Hms as [|? ? Hm Hms']; subst.
    destruct (step_cong f s1 s2 m H Hm) as [t1 t2 b Ht|t1 b r2 []| |]; try reflexivity.
    rewrite (IH t1 t2 Ht Hms'), (srel_db_kv _ _ _ _ _ Ht). reflexivity.
  Qed.

  Corollary db_run_cong_init f x1 x2 ms : sim x1 x2 -> Forall umove_in ms ->
    db_run c p C1 step1 obs1 seq strict f (db_init x1) ms = db_run c p C2 step2 obs2 seq strict f (db_init x2) ms.
  Proof. intros H. apply db_run_cong. repeat split; auto. Qed.
End Cong.
