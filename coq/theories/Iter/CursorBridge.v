(* Iter/CursorBridge.v — the two reference cursors of the development are the same cursor:
   Base/Cursor.v (positions cpos, runs c_run; the vocabulary of the block/table/memdb theories C13, C14) and
   Iter/Cursor.v (positions pos, black boxes, refines; the vocabulary of the iterator machines C02).
   Also: a machine whose every run shows what the Base cursor shows refines the Iter cursor
   (refines_of_runs), sortedness in both vocabularies, and plain-scan readings of the cursor's steps on a
   strictly sorted list (what the memdb reference Mem/MemSpec.v computes). *)
From GL Require Import Base.Order.
From GL Require Mem.ListLemmas.
From GL Require Base.Cursor Base.CursorProofs.
From GL Require Import Iter.Cursor Iter.CursorProofs.
From Coq Require Import Lia.

Definition pos_of (p : Base.Cursor.cpos) : pos :=
  match p with Base.Cursor.CSOI => SOI | Base.Cursor.CAt i => At i | Base.Cursor.CEOI => EOI end.

Definition move_of (o : Base.Cursor.cop) : move bytes :=
  match o with
  | Base.Cursor.OpFirst => MFirst | Base.Cursor.OpLast => MLast | Base.Cursor.OpSeek k => MSeek k
  | Base.Cursor.OpNext => MNext | Base.Cursor.OpPrev => MPrev
  end.

Section Bridge.
  Context {V : Type}.
  Variable c : comparer.
  Variable l : list (bytes * V).

  Lemma first_ge_find_ge k : forall (l' : list (bytes * V)) i,
    find_ge (cmp c) k l' i = match Base.Cursor.first_ge c k l' i with Some j => At j | None => EOI end.
  Proof.
    induction l' as [|[k' v] l' IH]; intros i; cbn [find_ge Base.Cursor.first_ge fst]; [reflexivity|].
    destruct (cmp c k' k); try reflexivity. apply IH.
  Qed.

  Lemma c_step_bridge p o :
    pos_of (Base.Cursor.c_step c l p o) = cstep (cmp c) l (pos_of p) (move_of o).
  Proof.
    destruct o; cbn [Base.Cursor.c_step move_of cstep].
    - unfold Base.Cursor.c_first, cfirst. destruct l; reflexivity.
    - unfold Base.Cursor.c_last, clast. destruct l as [|x r]; [reflexivity|]. cbn [length pos_of]. f_equal. lia.
    - unfold Base.Cursor.c_seek. rewrite first_ge_find_ge. destruct (Base.Cursor.first_ge c k l 0); reflexivity.
    - destruct p; cbn [Base.Cursor.c_next pos_of].
      + unfold Base.Cursor.c_first, cfirst. destruct l; reflexivity.
      + destruct (Nat.ltb (S i) (length l)); reflexivity.
      + reflexivity.
    - destruct p; cbn [Base.Cursor.c_prev pos_of]; try reflexivity.
      + destruct i; reflexivity.
      + unfold Base.Cursor.c_last, clast. destruct l as [|x r]; [reflexivity|]. cbn [length pos_of]. f_equal. lia.
  Qed.

  Lemma c_get_bridge p : Base.Cursor.c_get l p = cobs l (pos_of p).
  Proof. destruct p; reflexivity. Qed.
End Bridge.

Section ObsLists.
  Context {C : Type}.
  Variable step : C -> move bytes -> C.
  Variable obs : C -> option (bytes * bytes).

  Fixpoint obs_list (x : C) (ms : list (move bytes)) : list (option (bytes * bytes)) :=
    match ms with
    | [] => []
    | m :: r => obs (step x m) :: obs_list (step x m) r
    end.

  Lemma obs_list_snoc ms : forall x m,
    obs_list x (ms ++ [m]) = obs_list x ms ++ [obs (bb_run step x (ms ++ [m]))].
  Proof.
    induction ms as [|m0 ms IH]; intros x m; cbn [obs_list app bb_run fold_left]; [reflexivity|].
    rewrite IH. reflexivity.
  Qed.
End ObsLists.

Section CRun.
  Variable c : comparer.
  Variable l : list (bytes * bytes).

  Lemma c_run_obs_list ops : forall p,
    Base.Cursor.c_run c l p ops = obs_list (cur_step (cmp c)) cur_obs (l, pos_of p) (map move_of ops).
  Proof.
    induction ops as [|o ops IH]; intros p; cbn [Base.Cursor.c_run obs_list map]; [reflexivity|].
    assert (E : cur_step (cmp c) (l, pos_of p) (move_of o) = (l, pos_of (Base.Cursor.c_step c l p o))).
    { unfold cur_step. cbn [fst snd]. rewrite <- c_step_bridge. reflexivity. }
    rewrite E. unfold cur_obs at 1. cbn [fst snd]. rewrite <- c_get_bridge. f_equal. apply IH.
  Qed.
End CRun.

Lemma cop_move_inv (ms : list (move bytes)) : exists ops, map move_of ops = ms.
Proof.
  induction ms as [|m ms [ops E]]; [exists []; reflexivity|].
  exists ((match m with MFirst => Base.Cursor.OpFirst | MLast => Base.Cursor.OpLast | MSeek k => Base.Cursor.OpSeek k
                   | MNext => Base.Cursor.OpNext | MPrev => Base.Cursor.OpPrev end) :: ops).
  cbn [map]. rewrite E. destruct m; reflexivity.
Qed.

(* used for the table iterators: C13 states its refinement over whole runs *)
Theorem refines_of_runs {C} (c : comparer) (step : C -> move bytes -> C) (obs : C -> option (bytes * bytes))
  (x : C) (l : list (bytes * bytes)) :
  obs x = None ->
  (forall ops, obs_list step obs x (map move_of ops) = Base.Cursor.c_run c l Base.Cursor.CSOI ops) ->
  refines (cmp c) step obs x l.
Proof.
  intros H0 H ms. destruct (ListLemmas.list_snoc_cases ms) as [->|(ms' & m & ->)].
  - cbn. exact H0.
  - destruct (cop_move_inv (ms' ++ [m])) as (ops & E).
    pose proof (H ops) as Hr. rewrite c_run_obs_list, E in Hr. cbn [pos_of] in Hr.
    rewrite !obs_list_snoc in Hr. apply app_inj_tail in Hr as [_ Hr]. rewrite Hr.
    pose proof (cursor_refines_itself (cmp c) l SOI (ms' ++ [m])) as Hc.
    exact Hc.
Qed.

Section Sorted.
  Context {V : Type}.
  Variable c : comparer.
  Hypothesis ok : comparer_ok c.

  Lemma sorted_from_kv k (l : list (bytes * V)) : Base.Cursor.sorted_from c k l ->
    forall v : V, sorted_kv (cmp c) ((k, v) :: l).
  Proof.
    revert k. induction l as [|[k' v'] l IH]; intros k H v.
    - constructor; constructor.
    - cbn [Base.Cursor.sorted_from] in H. destruct H as [Hlt Hs].
      pose proof (IH k' Hs v') as Hs'.
      constructor; [exact Hs'|].
      constructor; [exact Hlt|].
      apply StronglySorted_inv in Hs' as [_ Hall].
      eapply Forall_impl; [|exact Hall]. intros x Hx. unfold kv_lt in *. cbn [fst] in *.
      exact (cmp_trans c ok _ _ _ Hlt Hx).
  Qed.

  Lemma sorted_base_kv (l : list (bytes * V)) : Base.Cursor.sorted c l -> sorted_kv (cmp c) l.
  Proof.
    destruct l as [|[k v] l]; [constructor|]. cbn [Base.Cursor.sorted]. intros H. apply sorted_from_kv. exact H.
  Qed.

  Lemma sorted_kv_filter (g : bytes * V -> bool) (l : list (bytes * V)) :
    sorted_kv (cmp c) l -> sorted_kv (cmp c) (filter g l).
  Proof.
    induction l as [|x l IH]; intros H; [constructor|].
    apply StronglySorted_inv in H as [Hs Hall]. cbn [filter].
    destruct (g x); [|apply IH; exact Hs].
    constructor; [apply IH; exact Hs|].
    rewrite Forall_forall in *. intros y Hy. apply filter_In in Hy as [Hy _]. apply Hall. exact Hy.
  Qed.
End Sorted.

Section Scans.
  Context {K V : Type} (f : K -> K -> comparison).
  Hypothesis fok : ord_ok f.
  Notation kv := (K * V)%type.

  Definition ge_b (k : K) (x : kv) : bool := match f (fst x) k with Lt => false | _ => true end.
  Definition gt_b (k : K) (x : kv) : bool := match f k (fst x) with Lt => true | _ => false end.
  Definition lt_b (k : K) (x : kv) : bool := match f (fst x) k with Lt => true | _ => false end.

  Fixpoint find_last_b (g : kv -> bool) (l : list kv) : option kv :=
    match l with
    | [] => None
    | x :: r => match find_last_b g r with Some y => Some y | None => if g x then Some x else None end
    end.

  Lemma scan_seek k (l : list kv) : find (ge_b k) l = cobs l (find_ge f k l 0).
  Proof.
    induction l as [|x l IH]; [reflexivity|]. cbn [find find_ge]. unfold ge_b at 1.
    destruct (f (fst x) k) eqn:E; try reflexivity.
    rewrite IH, (find_ge_shift f k l 1). destruct (find_ge f k l 0); reflexivity.
  Qed.

  Lemma scan_next (l : list kv) : sorted_kv f l -> forall i x, nth_error l i = Some x ->
    find (gt_b (fst x)) l = nth_error l (S i).
  Proof.
    induction l as [|y l IH]; intros Hs i x Hi; [destruct i; discriminate|].
    apply StronglySorted_inv in Hs as [Hs Hall]. destruct i as [|i]; cbn [nth_error] in Hi.
    - injection Hi as ->. cbn [find]. unfold gt_b at 1. rewrite (f_refl f fok). cbn [nth_error].
      destruct l as [|z l]; [reflexivity|]. cbn [find nth_error]. unfold gt_b.
      apply Forall_inv in Hall. unfold kv_lt in Hall. rewrite Hall. reflexivity.
    - cbn [find]. unfold gt_b at 1.
      assert (Hyx : f (fst y) (fst x) = Lt).
      { rewrite Forall_forall in Hall. apply (Hall x). eapply nth_error_In; eauto. }
      apply (f_lt_gt f fok) in Hyx. rewrite Hyx. cbn [nth_error]. apply (IH Hs i x Hi).
  Qed.

  Lemma find_last_b_none g (l : list kv) : (forall x, In x l -> g x = false) -> find_last_b g l = None.
  Proof.
    induction l as [|x l IH]; intros H; [reflexivity|]. cbn [find_last_b].
    rewrite IH by (intros y Hy; apply H; right; exact Hy). rewrite (H x (or_introl eq_refl)). reflexivity.
  Qed.

  Lemma scan_prev (l : list kv) : sorted_kv f l -> forall i x, nth_error l i = Some x ->
    find_last_b (lt_b (fst x)) l = match i with O => None | S j => nth_error l j end.
  Proof.
    induction l as [|y l IH]; intros Hs i x Hi; [destruct i; discriminate|].
    apply StronglySorted_inv in Hs as [Hs Hall]. destruct i as [|i]; cbn [nth_error] in Hi.
    - injection Hi as ->. cbn [find_last_b].
      rewrite find_last_b_none.
      + unfold lt_b. rewrite (f_refl f fok). reflexivity.
      + intros z Hz. unfold lt_b. rewrite Forall_forall in Hall. specialize (Hall z Hz). unfold kv_lt in Hall.
        apply (f_lt_gt f fok) in Hall. rewrite Hall. reflexivity.
    - cbn [find_last_b]. rewrite (IH Hs i x Hi).
      assert (Hyx : f (fst y) (fst x) = Lt).
      { rewrite Forall_forall in Hall. apply (Hall x). eapply nth_error_In; eauto. }
      destruct i as [|j].
      + unfold lt_b. rewrite Hyx. reflexivity.
      + cbn [nth_error]. destruct (nth_error l j) eqn:E; [reflexivity|].
        exfalso. apply nth_error_None in E. apply ListLemmas.nth_error_Some_lt in Hi. lia.
  Qed.

  Lemma scan_last (l : list kv) : find_last_b (fun _ => true) l = cobs l (clast l).
  Proof.
    induction l as [|x l IH]; [reflexivity|]. cbn [find_last_b]. rewrite IH.
    unfold clast. cbn [length]. destruct l as [|y l]; [reflexivity|]. cbn [length cobs nth_error].
    destruct (nth_error (y :: l) (length l)) eqn:E; [reflexivity|].
    exfalso. apply nth_error_None in E. cbn [length] in E. lia.
  Qed.
End Scans.
