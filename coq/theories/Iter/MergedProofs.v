(* Iter/MergedProofs.v — the merged iterator (Iter/Merged.v) refines the cursor over the merge of its
   children's lists: simulation relation between machine states and cursor positions, preserved by
   each of the five calls from every related state (all call sequences, direction changes included).
   Section MergeFacts: the spec merge_lists is strictly sorted and holds exactly the children's pairs, and
   the list-scan pop (pop_scan) meets the heap contract pop_ok. *)
From GL Require Import Iter.CursorProofs Iter.Merged.
From GL Require Mem.ListLemmas.
From Coq Require Import Lia Arith.

Section ListFacts.
  Context {A : Type}.

  Lemma upd_length (l : list A) i a : length (upd l i a) = length l.
  Proof. revert i. induction l as [|x l IH]; intros [|i]; cbn; auto. Qed.

  Lemma nth_error_upd_eq (l : list A) i a : i < length l -> nth_error (upd l i a) i = Some a.
  Proof. revert i. induction l as [|x l IH]; intros [|i] H; cbn in *; try lia; auto. apply IH. lia. Qed.

  Lemma nth_error_upd_neq (l : list A) i j a : i <> j -> nth_error (upd l i a) j = nth_error l j.
  Proof.
    revert i j. induction l as [|x l IH]; intros [|i] [|j] H; cbn; auto; try congruence.
  Qed.

  Lemma nth_error_lt_some (l : list A) j : j < length l -> exists x, nth_error l j = Some x.
  Proof. intros H. destruct (nth_error l j) eqn:E; eauto. apply nth_error_None in E. lia. Qed.
End ListFacts.

Lemma Forall2_nth_error {A B} (P : A -> B -> Prop) l1 l2 : Forall2 P l1 l2 ->
  forall j a b, nth_error l1 j = Some a -> nth_error l2 j = Some b -> P a b.
Proof.
  induction 1 as [|a0 b0 l1 l2 H0 _ IH]; intros [|j] a b Ha Hb; cbn in *; try discriminate.
  - injection Ha as <-. injection Hb as <-. exact H0.
  - eapply IH; eauto.
Qed.

Lemma nth_error_mapi_from {A B} (f : nat -> A -> B) (l : list A) : forall i0 j,
  nth_error (mapi_from f i0 l) j = option_map (f (i0 + j)) (nth_error l j).
Proof.
  induction l as [|a l IH]; intros i0 [|j]; cbn; auto.
  - rewrite Nat.add_0_r. reflexivity.
  - rewrite IH. replace (S i0 + j) with (i0 + S j) by lia. reflexivity.
Qed.

Lemma mapi_from_length {A B} (f : nat -> A -> B) (l : list A) i0 : length (mapi_from f i0 l) = length l.
Proof. revert i0. induction l as [|a l IH]; intros i0; cbn; auto. Qed.

Lemma pushed_in {K} (keys : list (option K)) : forall i0 j,
  In j (pushed keys i0) <-> i0 <= j /\ exists k, nth_error keys (j - i0) = Some (Some k).
Proof.
  induction keys as [|[k|] keys IH]; intros i0 j; cbn.
  - split; [intros []|]. intros (_ & k & H). destruct (j - i0); discriminate.
  - rewrite IH. split.
    + intros [<-|(H1 & k' & H2)].
      * split; [lia|]. exists k. rewrite Nat.sub_diag. reflexivity.
      * split; [lia|]. exists k'. replace (j - i0) with (S (j - S i0)) by lia. exact H2.
    + intros (H1 & k' & H2). destruct (Nat.eq_dec i0 j) as [E|E]; [left; exact E|right].
      split; [lia|]. exists k'. replace (j - i0) with (S (j - S i0)) in H2 by lia. exact H2.
  - rewrite IH. split.
    + intros (H1 & k' & H2). split; [lia|]. exists k'. replace (j - i0) with (S (j - S i0)) by lia. exact H2.
    + intros (H1 & k' & H2). destruct (Nat.eq_dec i0 j) as [E|E].
      * subst. rewrite Nat.sub_diag in H2. discriminate.
      * split; [lia|]. exists k'. replace (j - i0) with (S (j - S i0)) in H2 by lia. exact H2.
Qed.

Lemma pushed_nodup {K} (keys : list (option K)) : forall i0, NoDup (pushed keys i0).
Proof.
  induction keys as [|[k|] keys IH]; intros i0; cbn; [constructor| |apply IH].
  constructor; [|apply IH]. rewrite pushed_in. lia.
Qed.

Section MergedProofs.
  Variables K V C : Type.
  Variable kcmp : K -> K -> comparison.
  Hypothesis ok : ord_ok kcmp.
  Variable chstep : C -> move K -> C.
  Variable chobs : C -> option (K * V).
  Variable pop : list (option K) -> bool -> list nat -> option (nat * list nat).
  Hypothesis Hpop : pop_ok K kcmp pop.

  Variable ls : list (list (K * V)).      (* the children's lists *)
  Variable M : list (K * V).              (* their merge *)
  Hypothesis Hls : forall j l, nth_error ls j = Some l -> sorted_kv kcmp l.
  Hypothesis HMs : sorted_kv kcmp M.
  Hypothesis HMin : forall x, In x M <-> exists j l, nth_error ls j = Some l /\ In x l.
  Hypothesis Hdisj : forall i j li lj x y, nth_error ls i = Some li -> nth_error ls j = Some lj ->
    In x li -> In y lj -> fst x = fst y -> i = j.

  Notation kv := (K * V)%type.
  Notation klt a b := (kcmp (fst a) (fst b) = Lt).
  Notation st := (mstate K C).
  Notation n := (length ls).
  Notation child_at c l q := (refines_from kcmp chstep chobs c l q).

  Lemma sorted_key_eq (l : list kv) x y : sorted_kv kcmp l -> In x l -> In y l -> fst x = fst y -> x = y.
  Proof.
    intros Hs Hx Hy E. apply In_nth_error in Hx as [i Hi]. apply In_nth_error in Hy as [j Hj].
    assert (i = j) by (eapply (sorted_nth_key_inj kcmp ok); eauto). subst. congruence.
  Qed.

  (* The order the heap pops by: kcmp going forward (min-heap), its converse going backward (max-heap).
     Everything about the heap and the invariant of a landed state is stated once, for ocmp rev. *)
  Definition ocmp (rev : bool) (a b : K) : comparison := if rev then kcmp b a else kcmp a b.
  Notation olt rev a b := (ocmp rev (fst a) (fst b) = Lt).
  Notation ole rev a b := (ocmp rev (fst a) (fst b) <> Gt).

  Lemma ocmp_ok rev : ord_ok (ocmp rev).
  Proof.
    destruct rev; [|exact ok]. split; unfold ocmp.
    - intros a b. rewrite (o_eq kcmp ok). split; congruence.
    - intros a b. apply (o_opp kcmp ok).
    - intros a b d H1 H2. exact (o_trans kcmp ok d b a H2 H1).
  Qed.

  Lemma heap_less_ocmp keys rev a b i j : nth i keys None = Some a -> nth j keys None = Some b ->
    heap_less K kcmp keys rev i j = false -> ocmp rev a b <> Lt.
  Proof.
    unfold heap_less, ocmp. intros -> ->. destruct rev; [rewrite (o_opp kcmp ok a b)|];
      destruct (kcmp a b); cbn; congruence.
  Qed.

  (* q is on the first pair of l satisfying B in the order ocmp rev (the least going forward, the greatest
     going backward), or shows nothing and no pair of l satisfies B *)
  Definition pos_least (rev : bool) (B : kv -> Prop) (l : list kv) (q : pos) : Prop :=
    match cobs l q with
    | Some x => In x l /\ B x /\ forall y, In y l -> B y -> ole rev x y
    | None => forall y, In y l -> ~ B y
    end.

  Definition up_closed (rev : bool) (B : kv -> Prop) : Prop := forall x y, B x -> olt rev x y -> B y.

  Lemma cobs_in (l : list kv) q x : cobs l q = Some x -> In x l.
  Proof. destruct q; cbn; try discriminate. apply nth_error_In. Qed.

  Lemma pos_least_first (l : list kv) : sorted_kv kcmp l -> pos_least false (fun _ => True) l (cfirst l).
  Proof.
    intros Hs. unfold pos_least. destruct l as [|x l]; cbn [cfirst cobs nth_error]; [intros y []|].
    split; [left; reflexivity|]. split; [exact I|]. intros y Hy _. apply In_nth_error in Hy as [j Hj].
    apply (sorted_nth_le kcmp ok (x :: l) Hs 0 j); [lia|reflexivity|exact Hj].
  Qed.

  Lemma pos_greatest_last (l : list kv) : sorted_kv kcmp l -> pos_least true (fun _ => True) l (clast l).
  Proof.
    intros Hs. unfold pos_least, clast. destruct (length l) as [|m] eqn:El.
    - destruct l; [|discriminate]. cbn. intros y [].
    - cbn [cobs]. destruct (nth_error_lt_some l m ltac:(lia)) as [x Hx]. rewrite Hx.
      split; [eapply nth_error_In; eauto|]. split; [exact I|]. intros y Hy _.
      apply In_nth_error in Hy as [j Hj]. pose proof (ListLemmas.nth_error_Some_lt _ _ _ Hj).
      apply (sorted_nth_le kcmp ok l Hs j m); [lia|exact Hj|exact Hx].
  Qed.

  Lemma pos_least_seek (l : list kv) k : sorted_kv kcmp l ->
    pos_least false (fun y => kcmp (fst y) k <> Lt) l (find_ge kcmp k l 0).
  Proof.
    intros Hs. pose proof (seek_lands_first_ge kcmp ok l SOI k Hs) as H. cbn [cstep] in H.
    unfold pos_least. destruct (cobs l (find_ge kcmp k l 0)); [exact H|].
    intros y Hy Hge. apply Hge, H, Hy.
  Qed.

  Lemma pos_least_next (l : list kv) i e : sorted_kv kcmp l -> nth_error l i = Some e ->
    pos_least false (fun y => klt e y) l (cstep kcmp l (At i) MNext).
  Proof.
    intros Hs He. unfold pos_least. assert (Hi : i < length l) by (eapply ListLemmas.nth_error_Some_lt; eauto).
    assert (Habove : forall j y, nth_error l j = Some y -> klt e y -> i < j).
    { intros j y Hj. apply (sorted_lt_index kcmp ok l Hs i j e y He Hj). }
    destruct (Nat.lt_ge_cases (S i) (length l)) as [H|H].
    - rewrite cstep_next_lt by exact H. cbn [cobs].
      destruct (nth_error_lt_some l (S i) H) as [x Hx]. rewrite Hx.
      split; [eapply nth_error_In; eauto|].
      split; [eapply (sorted_nth_lt kcmp); [exact Hs| |exact He|exact Hx]; lia|].
      intros y Hy Hey. apply In_nth_error in Hy as [j Hj].
      apply (sorted_nth_le kcmp ok l Hs (S i) j); [apply (Habove j y Hj Hey)|exact Hx|exact Hj].
    - rewrite cstep_next_ge by exact H. cbn [cobs]. intros y Hy Hey.
      apply In_nth_error in Hy as [j Hj]. pose proof (ListLemmas.nth_error_Some_lt _ _ _ Hj).
      pose proof (Habove j y Hj Hey). lia.
  Qed.

  (* stepping backward from position i (on e, or any position whose pairs before i are exactly
     those below the bound): the greatest pair below *)
  Lemma pos_greatest_before (l : list kv) i (B : kv -> Prop) : sorted_kv kcmp l -> i <= length l ->
    (forall j y, nth_error l j = Some y -> (B y <-> j < i)) ->
    pos_least true B l (match i with O => SOI | S i' => At i' end).
  Proof.
    intros Hs Hi HB. unfold pos_least. destruct i as [|i']; cbn [cobs].
    - intros y Hy Hby. apply In_nth_error in Hy as [j Hj]. apply (HB j y Hj) in Hby. lia.
    - destruct (nth_error_lt_some l i' ltac:(lia)) as [x Hx]. rewrite Hx.
      split; [eapply nth_error_In; eauto|]. split; [apply (HB i' x Hx); lia|].
      intros y Hy Hby. apply In_nth_error in Hy as [j Hj]. apply (HB j y Hj) in Hby.
      apply (sorted_nth_le kcmp ok l Hs j i'); [lia|exact Hj|exact Hx].
  Qed.

  Lemma pos_greatest_prev (l : list kv) i e : sorted_kv kcmp l -> nth_error l i = Some e ->
    pos_least true (fun y => klt y e) l (cstep kcmp l (At i) MPrev).
  Proof.
    intros Hs He. assert (Hi : i < length l) by (eapply ListLemmas.nth_error_Some_lt; eauto).
    replace (cstep kcmp l (At i) MPrev) with (match i with O => SOI | S i' => At i' end) by (destruct i; reflexivity).
    apply pos_greatest_before; [exact Hs|lia|].
    intros j y Hj. split.
    - intros Hlt. eapply (sorted_lt_index kcmp ok); [exact Hs|exact Hj|exact He|exact Hlt].
    - intros Hlt. eapply (sorted_nth_lt kcmp); [exact Hs|exact Hlt|exact Hj|exact He].
  Qed.

  (* Seek(k) then Prev, or Last when the seek fails: the greatest pair with key < k *)
  Lemma pos_greatest_seek_prev (l : list kv) k : sorted_kv kcmp l ->
    let q1 := find_ge kcmp k l 0 in
    pos_least true (fun y => kcmp (fst y) k = Lt) l
      (if is_some (cobs l q1) then cstep kcmp l q1 MPrev else clast l).
  Proof.
    intros Hs q1. subst q1. destruct (find_ge kcmp k l 0) as [|i|] eqn:E.
    - exfalso. eapply find_ge_not_soi; eauto.
    - destruct (find_ge_at kcmp k l i E) as (x & Hx & Hge & Hlt). cbn [cobs]. rewrite Hx. cbn [is_some].
      assert (Hi : i < length l) by (eapply ListLemmas.nth_error_Some_lt; eauto).
      replace (cstep kcmp l (At i) MPrev) with (match i with O => SOI | S i' => At i' end) by (destruct i; reflexivity).
      apply pos_greatest_before; [exact Hs|lia|].
      intros j y Hj. split; [|intros H; eapply Hlt; eauto].
      intros Hy. destruct (Nat.lt_ge_cases j i) as [H|H]; [exact H|exfalso].
      apply Hge. apply (f_le_lt_trans kcmp ok _ (fst y)); [|exact Hy].
      exact (sorted_nth_le kcmp ok l Hs i j x y H Hx Hj).
    - cbn [cobs is_some]. pose proof (find_ge_eoi kcmp k l E) as Hall.
      pose proof (pos_greatest_last l Hs) as Hg. unfold pos_least in *.
      destruct (cobs l (clast l)) as [x|] eqn:Ex.
      + destruct Hg as (Hin & _ & Hmax). split; [exact Hin|]. split; [apply Hall; exact Hin|].
        intros y Hy _. apply Hmax; auto.
      + intros y Hy _. apply (Hg y Hy). exact I.
  Qed.

  Notation m_next_ := (m_next_ K C pop).
  Notation m_prev_ := (m_prev_ K C pop).

  (* every child behaves like the cursor over its list at position qs j; keys[] caches their keys *)
  Definition children_ok (s : st) (qs : nat -> pos) : Prop :=
    length (m_iters s) = n /\ length (m_keys s) = n /\
    (forall j c l, nth_error (m_iters s) j = Some c -> nth_error ls j = Some l -> child_at c l (qs j)) /\
    (forall j l, nth_error ls j = Some l -> nth_error (m_keys s) j = Some (option_map fst (cobs l (qs j)))).

  (* the heap holds exactly the valid children, except the current one *)
  Definition heap_ok (s : st) (excl : option nat) : Prop :=
    NoDup (m_heap s) /\
    forall j, In j (m_heap s) <-> (j < n /\ Some j <> excl /\ exists k, nth_error (m_keys s) j = Some (Some k)).

  (* a landed state showing e: the current child is on e, every other child on its first pair beyond e *)
  Definition Inv (rev : bool) (s : st) (e : kv) : Prop :=
    exists qs c lc, m_rev s = rev /\ children_ok s qs /\ m_index s = c /\
      nth_error ls c = Some lc /\ heap_ok s (Some c) /\ cobs lc (qs c) = Some e /\
      forall j l, nth_error ls j = Some l -> j <> c -> pos_least rev (fun y => olt rev e y) l (qs j).

  Lemma keys_nth s qs j l : children_ok s qs -> nth_error ls j = Some l ->
    nth j (m_keys s) None = option_map fst (cobs l (qs j)).
  Proof. intros (_ & _ & _ & Hk) Hl. apply nth_error_nth. apply Hk. exact Hl. Qed.

  Lemma ls_lt j l : nth_error ls j = Some l -> j < n.
  Proof. apply ListLemmas.nth_error_Some_lt. Qed.

  Lemma keys_heap s qs j l xj : children_ok s qs -> heap_ok s None -> nth_error ls j = Some l ->
    cobs l (qs j) = Some xj -> In j (m_heap s).
  Proof.
    intros (_ & _ & _ & Hkeys) [_ Hheap] Hl Hxj. apply Hheap. split; [eapply ls_lt; eauto|].
    split; [discriminate|]. exists (fst xj). rewrite (Hkeys j l Hl), Hxj. reflexivity.
  Qed.

  Definition pop_to (rev : bool) (s : st) : st * bool := if rev then m_prev_ s else m_next_ s.
  Definition dir_end (rev : bool) : dir := if rev then DirSOI else DirEOI.
  Definition dir_on (rev : bool) : dir := if rev then DirBackward else DirForward.

  (* all children sit on their first B-pair: the pop lands on the first B-pair of M *)
  Lemma land rev s qs (B : kv -> Prop) : children_ok s qs -> heap_ok s None -> m_rev s = rev ->
    up_closed rev B -> (forall j l, nth_error ls j = Some l -> pos_least rev B l (qs j)) ->
    (exists s1, pop_to rev s = (s1, false) /\ m_dir s1 = dir_end rev /\ children_ok s1 qs /\ forall y, In y M -> ~ B y) \/
    (exists s1 e, pop_to rev s = (s1, true) /\ m_dir s1 = dir_on rev /\ Inv rev s1 e /\ In e M /\ B e /\
                  forall y, In y M -> B y -> ole rev e y).
  Proof.
    intros Hc Hh Hrev Hup Hpos. pose proof Hh as [Hnd Hheap]. pose proof Hc as (_ & _ & _ & Hkeys).
    assert (Hsome : forall y, In y (m_heap s) -> nth y (m_keys s) None <> None).
    { intros y Hy. apply Hheap in Hy as (_ & _ & k & Hk). rewrite (nth_error_nth _ _ None Hk). discriminate. }
    pose proof (Hpop (m_keys s) (m_rev s) (m_heap s) Hsome) as Hp.
    assert (Epop : pop_to rev s = match pop (m_keys s) (m_rev s) (m_heap s) with
                     | None => ({| m_iters := m_iters s; m_keys := m_keys s; m_index := m_index s; m_dir := dir_end rev;
                                   m_heap := m_heap s; m_rev := m_rev s |}, false)
                     | Some (x, h') => ({| m_iters := m_iters s; m_keys := m_keys s; m_index := x; m_dir := dir_on rev;
                                           m_heap := h'; m_rev := m_rev s |}, true)
                     end) by (destruct rev; reflexivity).
    rewrite Epop. clear Epop. destruct (pop (m_keys s) (m_rev s) (m_heap s)) as [[x h']|].
    - right. destruct Hp as [Hperm Hmin]. rewrite Hrev in Hmin.
      assert (Hxin : In x (m_heap s)) by (eapply Permutation_in; [apply Permutation_sym; exact Hperm|left; reflexivity]).
      apply Hheap in Hxin as (Hxn & _ & kx & Hkx).
      destruct (nth_error_lt_some ls x Hxn) as [lx Hlx]. rewrite (Hkeys x lx Hlx) in Hkx.
      destruct (cobs lx (qs x)) as [e|] eqn:Ee; [|discriminate]. clear kx Hkx.
      pose proof (Hpos x lx Hlx) as Px. unfold pos_least in Px. rewrite Ee in Px. destruct Px as (Hein & HBe & Hemin).
      (* e comes first among the valid children's pairs *)
      assert (Hbelow : forall j l xj, nth_error ls j = Some l -> cobs l (qs j) = Some xj -> ole rev e xj).
      { intros j l xj Hl Hxj. apply (f_not_lt_le _ (ocmp_ok rev)).
        apply (heap_less_ocmp (m_keys s) rev (fst xj) (fst e) j x).
        - rewrite (keys_nth s qs j l Hc Hl), Hxj. reflexivity.
        - rewrite (keys_nth s qs x lx Hc Hlx), Ee. reflexivity.
        - apply Hmin. apply (keys_heap s qs j l xj Hc Hh Hl Hxj). }
      eexists _, e. split; [reflexivity|]. split; [reflexivity|]. split.
      + exists qs, x, lx. split; [exact Hrev|]. split; [exact Hc|].
        split; [reflexivity|]. split; [exact Hlx|]. split; [|split; [exact Ee|]].
        { assert (Hnd' : NoDup (x :: h')) by (eapply Permutation_NoDup; eauto).
          split; [inversion Hnd'; assumption|]. intros j. cbn [m_heap m_keys]. split.
          - intros Hj. assert (Hj' : In j (m_heap s)) by (eapply Permutation_in; [apply Permutation_sym; exact Hperm|right; exact Hj]).
            apply Hheap in Hj' as (H1 & _ & H3). split; [exact H1|]. split; [|exact H3].
            intros E. injection E as ->. inversion Hnd'; subst. contradiction.
          - intros (Hjn & Hjx & Hk). assert (Hj' : In j (m_heap s)) by (apply Hheap; split; [exact Hjn|split; [discriminate|exact Hk]]).
            eapply Permutation_in in Hj'; [|exact Hperm]. destruct Hj' as [->|Hj']; [congruence|exact Hj']. }
        intros j l Hl Hne. pose proof (Hpos j l Hl) as Pj. unfold pos_least in *.
        destruct (cobs l (qs j)) as [xj|] eqn:Exj.
        * destruct Pj as (Hxjin & HBxj & Hxjmin). split; [exact Hxjin|]. split.
          -- (* the keys of different children differ, so e is strictly before xj *)
             destruct (f_total _ (ocmp_ok rev) (fst e) (fst xj)) as [H|[H|H]]; [exact H| |].
             ++ exfalso. apply Hne. symmetry. eapply (Hdisj x j lx l e xj); eauto.
             ++ exfalso. apply (Hbelow j l xj Hl Exj). apply (f_lt_gt _ (ocmp_ok rev)). exact H.
          -- intros y Hy Hey. apply Hxjmin; [exact Hy|]. apply (Hup e y HBe Hey).
        * intros y Hy Hey. apply (Pj y Hy). apply (Hup e y HBe Hey).
      + split; [apply HMin; eauto|]. split; [exact HBe|].
        intros y Hy HBy. apply HMin in Hy as (j & l & Hl & Hyl).
        pose proof (Hpos j l Hl) as Pj. unfold pos_least in Pj.
        destruct (cobs l (qs j)) as [xj|] eqn:Exj.
        * destruct Pj as (_ & _ & Hxjmin).
          eapply (f_le_trans _ (ocmp_ok rev)); [eapply Hbelow; eauto|apply Hxjmin; auto].
        * exfalso. apply (Pj y Hyl HBy).
    - left. eexists. split; [reflexivity|]. split; [reflexivity|]. split; [exact Hc|].
      intros y Hy HBy. apply HMin in Hy as (j & l & Hl & Hyl).
      pose proof (Hpos j l Hl) as Pj. unfold pos_least in Pj.
      destruct (cobs l (qs j)) as [xj|] eqn:Exj; [|apply (Pj y Hyl HBy)].
      pose proof (keys_heap s qs j l xj Hc Hh Hl Exj) as Hj. rewrite Hp in Hj. destruct Hj.
  Qed.

  Notation lj j := (nth j ls []).

  Lemma ls_nth j l : nth_error ls j = Some l -> lj j = l.
  Proof. apply nth_error_nth. Qed.

  Lemma child_exists s qs j l : children_ok s qs -> nth_error ls j = Some l ->
    exists c, nth_error (m_iters s) j = Some c /\ child_at c l (qs j).
  Proof.
    intros (Hi & _ & Hch & _) Hl. destruct (nth_error_lt_some (m_iters s) j) as [c Hc].
    - rewrite Hi. eapply ls_lt; eauto.
    - exists c. split; [exact Hc|]. eapply Hch; eauto.
  Qed.

  (* First / Last / Seek: every child makes the same absolute move *)
  Lemma reposition_ok s qs m rev d : children_ok s qs ->
    let s' := reposition K V C chstep chobs s m rev d in
    children_ok s' (fun j => cstep kcmp (lj j) (qs j) m) /\ heap_ok s' None /\ m_rev s' = rev /\ m_dir s' = d.
  Proof.
    intros Hc s'. pose proof Hc as (Hi & Hk & Hch & Hkeys).
    assert (Hc' : children_ok s' (fun j => cstep kcmp (lj j) (qs j) m)).
    { unfold children_ok, s'. cbn [reposition m_iters m_keys]. rewrite !map_length.
      split; [exact Hi|]. split; [exact Hi|]. split.
      - intros j c l Hj Hl. rewrite nth_error_map in Hj.
        destruct (nth_error (m_iters s) j) as [c0|] eqn:E; [|discriminate]. injection Hj as <-.
        rewrite (ls_nth j l Hl). apply refines_from_step. eapply Hch; eauto.
      - intros j l Hl. destruct (child_exists s qs j l Hc Hl) as (c0 & Hc0 & Hat).
        rewrite !nth_error_map, Hc0. cbn [option_map]. f_equal. unfold key_of.
        rewrite (ls_nth j l Hl). f_equal.
        apply (refines_from_obs kcmp chstep chobs). apply refines_from_step. exact Hat. }
    split; [exact Hc'|]. split; [|split; reflexivity].
    unfold heap_ok, s'. cbn [reposition m_heap m_keys]. split; [apply pushed_nodup|].
    intros j. rewrite pushed_in, Nat.sub_0_r. split.
    - intros (_ & k & Hkj). split; [|split; [discriminate|eauto]].
      apply ListLemmas.nth_error_Some_lt in Hkj. rewrite !map_length in Hkj. lia.
    - intros (_ & _ & Hkj). split; [lia|exact Hkj].
  Qed.

  (* the tail of Next / Prev: the current child makes one relative move and is pushed back *)
  Lemma step_current_ok s qs c lc m : children_ok s qs -> m_index s = c -> nth_error ls c = Some lc ->
    heap_ok s (Some c) ->
    exists s', step_current K V C chstep chobs s m = Some s' /\
      children_ok s' (fun j => if Nat.eqb j c then cstep kcmp lc (qs c) m else qs j) /\
      heap_ok s' None /\ m_rev s' = m_rev s /\ m_dir s' = m_dir s.
  Proof.
    intros Hc Hidx Hlc [Hnd Hheap]. pose proof Hc as (Hi & Hk & Hch & Hkeys).
    destruct (child_exists s qs c lc Hc Hlc) as (c0 & Hc0 & Hat).
    unfold step_current. rewrite Hidx, Hc0. eexists. split; [reflexivity|].
    assert (Hcn : c < n) by (eapply ls_lt; eauto).
    assert (Hobs : key_of K V C chobs (chstep c0 m) = option_map fst (cobs lc (cstep kcmp lc (qs c) m))).
    { unfold key_of. f_equal. apply (refines_from_obs kcmp chstep chobs). apply refines_from_step. exact Hat. }
    split; [|split; [|split; reflexivity]].
    - unfold children_ok. cbn [m_iters m_keys]. rewrite !upd_length.
      split; [exact Hi|]. split; [exact Hk|]. split.
      + intros j c1 l Hj Hl. destruct (Nat.eqb_spec j c) as [Ejc|Hne]; [subst j|].
        * rewrite nth_error_upd_eq in Hj by lia. injection Hj as <-.
          assert (l = lc) by congruence. subst. apply refines_from_step. exact Hat.
        * rewrite nth_error_upd_neq in Hj by congruence. eapply Hch; eauto.
      + intros j l Hl. destruct (Nat.eqb_spec j c) as [Ejc|Hne]; [subst j|].
        * rewrite nth_error_upd_eq by lia. assert (l = lc) by congruence. subst. f_equal. exact Hobs.
        * rewrite nth_error_upd_neq by congruence. apply Hkeys. exact Hl.
    - unfold heap_ok. cbn [m_heap m_keys].
      assert (Hnotin : ~ In c (m_heap s)).
      { intros H. apply Hheap in H as (_ & H & _). congruence. }
      split.
      + destruct (key_of K V C chobs (chstep c0 m)); [constructor; assumption|exact Hnd].
      + intros j. destruct (Nat.eq_dec j c) as [Ejc|Hne]; [subst j|].
        * rewrite nth_error_upd_eq by lia.
          destruct (key_of K V C chobs (chstep c0 m)) as [k|].
          -- split; [intros _; split; [exact Hcn|split; [discriminate|eauto]]|intros _; left; reflexivity].
          -- split; [intros H; contradiction|intros (_ & _ & k & H); discriminate].
        * rewrite nth_error_upd_neq by congruence.
          assert (Hiff : In j (m_heap s) <-> j < n /\ Some j <> None /\ (exists k, nth_error (m_keys s) j = Some (Some k))).
          { rewrite Hheap. split; intros (H1 & H2 & H3); (split; [exact H1|split; [|exact H3]]); congruence. }
          destruct (key_of K V C chobs (chstep c0 m)); [|exact Hiff].
          cbn [In]. rewrite Hiff. split; [intros [H|H]; [congruence|exact H]|intros H; right; exact H].
  Qed.

  (* Prev() in dirForward: every other child goes to its last pair below the current key *)
  Definition others_pos (qs : nat -> pos) (c : nat) (key : K) (j : nat) : pos :=
    if Nat.eqb j c then qs c
    else let q1 := find_ge kcmp key (lj j) 0 in
         if is_some (cobs (lj j) q1) then cstep kcmp (lj j) q1 MPrev else clast (lj j).

  Lemma reposition_others_ok s qs c lc key : children_ok s qs -> m_index s = c -> nth_error ls c = Some lc ->
    let s' := reposition_others K V C chstep chobs s key in
    children_ok s' (others_pos qs c key) /\ heap_ok s' (Some c) /\ m_rev s' = true /\ m_dir s' = m_dir s /\
    m_index s' = c.
  Proof.
    intros Hc Hidx Hlc s'. pose proof Hc as (Hi & Hk & Hch & Hkeys).
    assert (Hcn : c < n) by (eapply ls_lt; eauto).
    assert (Hits : forall j c1 l, nth_error (m_iters s') j = Some c1 -> nth_error ls j = Some l ->
              child_at c1 l (others_pos qs c key j)).
    { intros j c1 l Hj Hl. unfold s', reposition_others in Hj. cbn [m_iters] in Hj.
      rewrite nth_error_mapi_from in Hj. cbn [plus] in Hj. rewrite Hidx in Hj.
      destruct (nth_error (m_iters s) j) as [c0|] eqn:E; [|discriminate]. cbn [option_map] in Hj. injection Hj as <-.
      pose proof (Hch j c0 l E Hl) as Hat. unfold others_pos. rewrite (ls_nth j l Hl).
      destruct (Nat.eqb j c) eqn:Ejc.
      - apply Nat.eqb_eq in Ejc. subst j. exact Hat.
      - pose proof (refines_from_step kcmp chstep chobs _ _ _ (MSeek key) Hat) as H1. cbn [cstep] in H1.
        rewrite (refines_from_obs kcmp chstep chobs _ _ _ H1).
        destruct (is_some (cobs l (find_ge kcmp key l 0))).
        + apply refines_from_step. exact H1.
        + apply (refines_from_step kcmp chstep chobs _ _ _ MLast H1). }
    assert (Hc' : children_ok s' (others_pos qs c key)).
    { unfold children_ok. split; [|split; [|split; [exact Hits|]]].
      - unfold s', reposition_others. cbn [m_iters]. rewrite mapi_from_length. exact Hi.
      - unfold s', reposition_others. cbn [m_keys]. rewrite !mapi_from_length. exact Hi.
      - intros j l Hl.
        assert (Hjn : j < n) by (eapply ls_lt; eauto).
        destruct (nth_error_lt_some (m_iters s') j) as [c1 Hc1].
        { unfold s', reposition_others. cbn [m_iters]. rewrite mapi_from_length. lia. }
        pose proof (Hits j c1 l Hc1 Hl) as Hat.
        unfold s', reposition_others in Hc1 |- *. cbn [m_iters m_keys] in Hc1 |- *.
        rewrite nth_error_mapi_from, Hc1. cbn [plus option_map]. f_equal. rewrite Hidx.
        destruct (Nat.eqb j c) eqn:Ejc.
        + apply Nat.eqb_eq in Ejc. subst j. assert (l = lc) by congruence. subst l.
          rewrite (keys_nth s qs c lc Hc Hlc). unfold others_pos. rewrite Nat.eqb_refl. reflexivity.
        + unfold key_of. f_equal. apply (refines_from_obs kcmp chstep chobs). exact Hat. }
    split; [exact Hc'|]. split; [|split; [reflexivity|split; [reflexivity|exact Hidx]]].
    unfold heap_ok, s', reposition_others. cbn [m_heap m_keys]. rewrite Hidx. split.
    - apply NoDup_filter. apply pushed_nodup.
    - intros j. rewrite filter_In, pushed_in, Nat.sub_0_r. split.
      + intros ((_ & k & Hkj) & Hne). apply Bool.negb_true_iff, Nat.eqb_neq in Hne.
        split; [|split; [congruence|eauto]].
        apply ListLemmas.nth_error_Some_lt in Hkj. rewrite !mapi_from_length in Hkj. lia.
      + intros (_ & Hne & Hkj). split; [split; [lia|exact Hkj]|].
        apply Bool.negb_true_iff, Nat.eqb_neq. congruence.
  Qed.

  Definition R (s : st) (sp : pos) : Prop :=
    match m_dir s with
    | DirSOI => sp = SOI /\ exists qs, children_ok s qs
    | DirEOI => sp = EOI /\ exists qs, children_ok s qs
    | DirForward => exists e i, Inv false s e /\ sp = At i /\ nth_error M i = Some e
    | DirBackward => exists e i, Inv true s e /\ sp = At i /\ nth_error M i = Some e
    end.

  Notation m_kv := (m_kv K V C chobs).
  Notation step_ok r sp' := (exists s' ret, r = Some (s', ret) /\ ret = m_valid K C s' /\ R s' sp').

  Lemma R_children s sp : R s sp -> exists qs, children_ok s qs.
  Proof.
    unfold R. destruct (m_dir s).
    1,2: intros [_ H]; exact H.
    all: intros (e & i & (qs & c & lc & _ & H & _) & _); eauto.
  Qed.

  Lemma R_obs s sp : R s sp -> m_kv s = cobs M sp.
  Proof.
    unfold R, Merged.m_kv. destruct (m_dir s).
    1,2: intros [-> _]; reflexivity.
    all: intros (e & i & (qs & c & lc & _ & Hc & Hidx & Hlc & _ & He & _) & -> & HM); cbn [cobs];
      rewrite HM, Hidx, (keys_nth s qs c lc Hc Hlc), He; cbn [option_map];
      destruct (child_exists s qs c lc Hc Hlc) as (c0 & Hc0 & Hat); rewrite Hc0;
      rewrite (refines_from_obs kcmp chstep chobs _ _ _ Hat), He; destruct e; reflexivity.
  Qed.

  Lemma R_valid s sp : R s sp -> m_valid K C s = is_some (cobs M sp).
  Proof.
    unfold R, m_valid. destruct (m_dir s).
    1,2: intros [-> _]; reflexivity.
    all: intros (e & i & _ & -> & HM); cbn [cobs]; rewrite HM; reflexivity.
  Qed.

  Lemma M_index_unique i j a b : nth_error M i = Some a -> nth_error M j = Some b -> fst a = fst b -> i = j.
  Proof. apply (sorted_nth_key_inj kcmp ok M HMs). Qed.

  (* a pop from children on their first B-pairs moves the cursor to sp' as soon as sp' is the end when M has
     no B-pair, and else the position of its first B-pair *)
  Lemma land_R rev s qs (B : kv -> Prop) sp' : children_ok s qs -> heap_ok s None -> m_rev s = rev ->
    up_closed rev B -> (forall j l, nth_error ls j = Some l -> pos_least rev B l (qs j)) ->
    ((forall y, In y M -> ~ B y) -> sp' = if rev then SOI else EOI) ->
    (forall e, In e M -> B e -> (forall y, In y M -> B y -> ole rev e y) -> exists i, sp' = At i /\ nth_error M i = Some e) ->
    step_ok (Some (pop_to rev s)) sp'.
  Proof.
    intros Hc Hh Hrev Hup Hpos Hend Hon.
    destruct (land rev s qs B Hc Hh Hrev Hup Hpos) as [(s1 & Hr & Hd & Hc1 & Hnone)|(s1 & e & Hr & Hd & Hinv & HeM & HBe & Hmin)];
      rewrite Hr.
    - exists s1, false. split; [reflexivity|]. unfold m_valid, R. rewrite Hd, (Hend Hnone). destruct rev; cbn; eauto.
    - exists s1, true. destruct (Hon e HeM HBe Hmin) as (i & -> & Hi). split; [reflexivity|].
      unfold m_valid, R. rewrite Hd. destruct rev; cbn; eauto 6.
  Qed.

  Lemma step_first s sp : R s sp -> step_ok (Some (m_first K V C chstep chobs pop s)) (cfirst M).
  Proof.
    intros HR. destruct (R_children s sp HR) as [qs Hc].
    destruct (reposition_ok s qs MFirst false DirSOI Hc) as (Hc' & Hh & Hrev & _).
    apply (land_R false _ _ (fun _ => True) _ Hc' Hh Hrev).
    - intros x y _ _. exact I.
    - intros j l Hl. cbn [cstep]. rewrite (ls_nth j l Hl). apply pos_least_first. eapply Hls; eauto.
    - intros Hnone. destruct M as [|y M']; [reflexivity|]. exfalso. apply (Hnone y); [left; reflexivity|exact I].
    - intros e HeM _ Hmin. apply In_nth_error in HeM as [i Hi].
      assert (i = 0).
      { eapply (first_char_zero kcmp); [exact HMs|exact Hi|]. intros y Hy Hlt.
        apply (Hmin y Hy I). apply (f_lt_gt kcmp ok). exact Hlt. }
      subst i. exists 0. split; [destruct M; [discriminate|reflexivity]|exact Hi].
  Qed.

  Lemma step_seek s sp k : R s sp -> step_ok (Some (m_seek K V C chstep chobs pop s k)) (find_ge kcmp k M 0).
  Proof.
    intros HR. destruct (R_children s sp HR) as [qs Hc].
    destruct (reposition_ok s qs (MSeek k) false DirSOI Hc) as (Hc' & Hh & Hrev & _).
    apply (land_R false _ _ (fun y => kcmp (fst y) k <> Lt) _ Hc' Hh Hrev).
    - intros x y Hx Hxy Hy. apply Hx. eapply (o_trans kcmp ok); eauto.
    - intros j l Hl. cbn [cstep]. rewrite (ls_nth j l Hl). apply pos_least_seek. eapply Hls; eauto.
    - intros Hnone. apply (seek_char_eoi kcmp).
      intros y Hy. destruct (kcmp (fst y) k) eqn:E; auto; exfalso; apply (Hnone y Hy); congruence.
    - intros e HeM HBe Hmin. exact (seek_char kcmp ok M k e HMs HeM HBe Hmin).
  Qed.

  Lemma step_last s sp : R s sp -> step_ok (Some (m_last K V C chstep chobs pop s)) (clast M).
  Proof.
    intros HR. destruct (R_children s sp HR) as [qs Hc].
    destruct (reposition_ok s qs MLast true DirEOI Hc) as (Hc' & Hh & Hrev & _).
    apply (land_R true _ _ (fun _ => True) _ Hc' Hh Hrev).
    - intros x y _ _. exact I.
    - intros j l Hl. cbn [cstep]. rewrite (ls_nth j l Hl). apply pos_greatest_last. eapply Hls; eauto.
    - intros Hnone. destruct M as [|y M']; [reflexivity|]. exfalso. apply (Hnone y); [left; reflexivity|exact I].
    - intros e HeM _ Hmax. apply In_nth_error in HeM as [i Hi].
      assert (S i = length M).
      { eapply (last_char kcmp); [exact HMs|exact Hi|]. intros y Hy Hlt.
        apply (Hmax y Hy I). apply (f_lt_gt kcmp ok). exact Hlt. }
      exists i. split; [unfold clast; rewrite <- H; reflexivity|exact Hi].
  Qed.

  Lemma next_fwd_ok s e i : Inv false s e -> nth_error M i = Some e ->
    step_ok (m_next_fwd K V C chstep chobs pop s) (cstep kcmp M (At i) MNext).
  Proof.
    intros (qs & c & lc & Hrev & Hc & Hidx & Hlc & Hheap & He & Hothers) HM.
    destruct (step_current_ok s qs c lc MNext Hc Hidx Hlc Hheap) as (s2 & Hs2 & Hc2 & Hh2 & Hrev2 & _).
    unfold m_next_fwd. rewrite Hs2.
    destruct (cobs_some_ok lc (qs c) e He) as (ic & Hqc & Hic).
    assert (Hlcs : sorted_kv kcmp lc) by (eapply Hls; eauto).
    apply (land_R false _ _ (fun y => klt e y) _ Hc2 Hh2).
    - congruence.
    - intros x y Hx Hxy. eapply (o_trans kcmp ok); eauto.
    - intros j l Hl. destruct (Nat.eqb_spec j c) as [Ejc|Hne].
      + subst j. assert (l = lc) by congruence. subst l. rewrite Hqc. apply pos_least_next; assumption.
      + apply Hothers; assumption.
    - intros Hnone. apply cstep_next_ge. rewrite <- (last_char kcmp M i e HMs HM Hnone). lia.
    - intros e' HeM HBe Hmin. pose proof (succ_char kcmp ok M i e e' HMs HM HeM HBe Hmin) as Hsucc.
      exists (S i). split; [apply cstep_next_lt; eapply ListLemmas.nth_error_Some_lt; eauto|exact Hsucc].
  Qed.

  Lemma prev_bwd_ok s e i : Inv true s e -> nth_error M i = Some e ->
    step_ok (m_prev_bwd K V C chstep chobs pop s) (cstep kcmp M (At i) MPrev).
  Proof.
    intros (qs & c & lc & Hrev & Hc & Hidx & Hlc & Hheap & He & Hothers) HM.
    destruct (step_current_ok s qs c lc MPrev Hc Hidx Hlc Hheap) as (s2 & Hs2 & Hc2 & Hh2 & Hrev2 & _).
    unfold m_prev_bwd. rewrite Hs2.
    destruct (cobs_some_ok lc (qs c) e He) as (ic & Hqc & Hic).
    assert (Hlcs : sorted_kv kcmp lc) by (eapply Hls; eauto).
    apply (land_R true _ _ (fun y => klt y e) _ Hc2 Hh2).
    - congruence.
    - intros x y Hx Hxy. eapply (o_trans kcmp ok); eauto.
    - intros j l Hl. destruct (Nat.eqb_spec j c) as [Ejc|Hne].
      + subst j. assert (l = lc) by congruence. subst l. rewrite Hqc. apply pos_greatest_prev; assumption.
      + apply Hothers; assumption.
    - intros Hnone. rewrite (first_char_zero kcmp M i e HMs HM Hnone). reflexivity.
    - intros e' HeM HBe Hmax. destruct i as [|i'].
      + exfalso. apply In_nth_error in HeM as [j Hj].
        pose proof (sorted_lt_index kcmp ok M HMs j 0 e' e Hj HM HBe). lia.
      + exists i'. split; [reflexivity|exact (pred_char kcmp ok M i' e e' HMs HM HeM HBe Hmax)].
  Qed.

  Lemma m_seek_dir s k : m_dir (fst (m_seek K V C chstep chobs pop s k)) <> DirBackward.
  Proof.
    unfold m_seek, Merged.m_next_. destruct (pop _ _ _) as [[x h]|]; cbn; discriminate.
  Qed.

  Lemma step_next s sp : R s sp -> step_ok (m_Next K V C chstep chobs pop s) (cstep kcmp M sp MNext).
  Proof.
    intros HR. unfold m_Next. pose proof HR as HR0. unfold R in HR. destruct (m_dir s) eqn:Ed.
    - destruct HR as [-> _]. cbn [cstep]. apply (step_first s SOI HR0).
    - destruct HR as [-> Hq]. exists s, false. split; [reflexivity|].
      split; [unfold m_valid; rewrite Ed; reflexivity|]. exact HR0.
    - (* dirBackward: Seek(current key), then the forward step *)
      destruct HR as (e & i & Hinv & -> & HM).
      pose proof Hinv as (qs & c & lc & Hrev & Hc & Hidx & Hlc & Hheap & He & Hothers).
      rewrite Hidx, (keys_nth s qs c lc Hc Hlc), He. cbn [option_map].
      destruct (step_seek s (At i) (fst e) HR0) as (s1 & ret & Hr & Hret & HR1).
      injection Hr as Hr. rewrite Hr.
      (* the seek lands on e itself *)
      assert (HeM : In e M) by (eapply nth_error_In; eauto).
      destruct (seek_char kcmp ok M (fst e) e HMs HeM) as (j & Hj & Hej).
      { rewrite (f_refl kcmp ok). discriminate. }
      { intros y Hy Hge. apply (f_not_lt_le kcmp ok). exact Hge. }
      assert (j = i) by (eapply M_index_unique; eauto). subst j. rewrite Hj in HR1.
      unfold R in HR1. destruct (m_dir s1) eqn:Ed1; try (destruct HR1 as [HR1 _]; discriminate).
      + exfalso. apply (m_seek_dir s (fst e)). rewrite Hr. exact Ed1.
      + destruct HR1 as (e1 & i1 & Hinv1 & Hi1 & HM1). injection Hi1 as <-.
        assert (e1 = e) by congruence. subst e1.
        assert (Hrt : ret = true) by (rewrite Hret; unfold m_valid; rewrite Ed1; reflexivity). rewrite Hrt.
        apply (next_fwd_ok s1 e i Hinv1 HM).
    - destruct HR as (e & i & Hinv & -> & HM). apply (next_fwd_ok s e i Hinv HM).
  Qed.

  Lemma step_prev s sp : R s sp -> step_ok (m_Prev K V C chstep chobs pop s) (cstep kcmp M sp MPrev).
  Proof.
    intros HR. unfold m_Prev. pose proof HR as HR0. unfold R in HR. destruct (m_dir s) eqn:Ed.
    - destruct HR as [-> Hq]. exists s, false. split; [reflexivity|].
      split; [unfold m_valid; rewrite Ed; reflexivity|]. exact HR0.
    - destruct HR as [-> _]. cbn [cstep]. apply (step_last s EOI HR0).
    - destruct HR as (e & i & Hinv & -> & HM). apply (prev_bwd_ok s e i Hinv HM).
    - (* dirForward: re-position the other children below the current key, then the backward step *)
      destruct HR as (e & i & Hinv & -> & HM).
      pose proof Hinv as (qs & c & lc & Hrev & Hc & Hidx & Hlc & Hheap & He & Hothers).
      rewrite Hidx, (keys_nth s qs c lc Hc Hlc), He. cbn [option_map].
      destruct (reposition_others_ok s qs c lc (fst e) Hc Hidx Hlc) as (Hc' & Hh' & Hrev' & _ & Hidx').
      apply (prev_bwd_ok _ e i); [|exact HM].
      exists (others_pos qs c (fst e)), c, lc. split; [exact Hrev'|]. split; [exact Hc'|].
      split; [exact Hidx'|]. split; [exact Hlc|]. split; [exact Hh'|]. split.
      + unfold others_pos. rewrite Nat.eqb_refl. exact He.
      + intros j l Hl Hne. unfold others_pos. apply Nat.eqb_neq in Hne. rewrite Hne, (ls_nth j l Hl).
        apply pos_greatest_seek_prev. eapply Hls; eauto.
  Qed.

  Theorem merged_sim s sp m : R s sp ->
    exists s' ret, m_step K V C chstep chobs pop s m = Some (s', ret) /\ R s' (cstep kcmp M sp m) /\
                   (ret, m_kv s') = out_of (cobs M (cstep kcmp M sp m)).
  Proof.
    intros HR.
    assert (H : step_ok (m_step K V C chstep chobs pop s m) (cstep kcmp M sp m)).
    { destruct m; cbn [m_step cstep].
      - apply (step_first s sp HR).
      - apply (step_last s sp HR).
      - apply (step_seek s sp k HR).
      - apply (step_next s sp HR).
      - apply (step_prev s sp HR). }
    destruct H as (s' & ret & Hr & Hret & HR'). exists s', ret. split; [exact Hr|]. split; [exact HR'|].
    unfold out_of. rewrite Hret, (R_obs s' _ HR'), (R_valid s' _ HR'). reflexivity.
  Qed.

  Lemma merged_run_from s sp ms : R s sp ->
    m_run K V C chstep chobs pop s ms = Some (run_from kcmp M sp ms).
  Proof.
    revert s sp. induction ms as [|m ms IH]; intros s sp HR; cbn [m_run run_from]; [reflexivity|].
    destruct (merged_sim s sp m HR) as (s' & ret & Hr & HR' & Hout).
    rewrite Hr, (IH s' _ HR'), Hout. reflexivity.
  Qed.

  Lemma R_init its : Forall2 (fun c l => refines kcmp chstep chobs c l) its ls -> R (m_init its) SOI.
  Proof.
    intros Href. pose proof (ListLemmas.Forall2_length _ _ _ Href) as Hlen. unfold R. cbn. split; [reflexivity|]. exists (fun _ => SOI).
    unfold children_ok. cbn. rewrite map_length. split; [exact Hlen|]. split; [exact Hlen|]. split.
    - intros j c l Hj Hl. exact (Forall2_nth_error _ _ _ Href j c l Hj Hl).
    - intros j l Hl. rewrite nth_error_map.
      destruct (nth_error_lt_some its j) as [c Hc]; [rewrite Hlen; eapply ls_lt; eauto|].
      rewrite Hc. reflexivity.
  Qed.

  Lemma merged_refines_from s sp : R s sp ->
    refines_from kcmp (merged_step K V C chstep chobs pop) m_kv s M sp.
  Proof.
    apply (refines_by_sim kcmp _ _ M R R_obs). intros x q m HR.
    destruct (merged_sim x q m HR) as (s' & ret & Hr & HR' & _). unfold merged_step. rewrite Hr. exact HR'.
  Qed.
End MergedProofs.

Section MergeFacts.
  Variables K V : Type.
  Variable kcmp : K -> K -> comparison.
  Hypothesis ok : ord_ok kcmp.
  Notation kv := (K * V)%type.

  Lemma insert_in (x : kv) l y : In y (insert_kv kcmp x l) <-> y = x \/ In y l.
  Proof.
    induction l as [|z l IH]; cbn.
    - split; [intros [H|[]]; auto|intros [H|[]]; auto].
    - destruct (kcmp (fst x) (fst z)); cbn; try rewrite IH; intuition auto.
  Qed.

  Lemma insert_sorted (x : kv) l : sorted_kv kcmp l -> (forall y, In y l -> fst y <> fst x) ->
    sorted_kv kcmp (insert_kv kcmp x l).
  Proof.
    induction l as [|z l IH]; intros Hs Hne; cbn.
    - constructor; constructor.
    - pose proof (sorted_cons_inv kcmp z l Hs) as [Hs' F].
      destruct (kcmp (fst x) (fst z)) eqn:E.
      + exfalso. apply (o_eq kcmp ok) in E. apply (Hne z); [left; reflexivity|congruence].
      + constructor; [exact Hs|]. constructor; [exact E|].
        rewrite Forall_forall in *. intros y Hy. unfold kv_lt. eapply (o_trans kcmp ok); [exact E|apply F; exact Hy].
      + constructor.
        * apply IH; [exact Hs'|]. intros y Hy. apply Hne. right. exact Hy.
        * rewrite Forall_forall in *. intros y Hy. apply insert_in in Hy as [->|Hy]; [|apply F; exact Hy].
          unfold kv_lt. apply (f_gt_lt kcmp ok). exact E.
  Qed.

  Lemma fold_insert_in (L : list kv) y : In y (fold_right (insert_kv kcmp) [] L) <-> In y L.
  Proof.
    induction L as [|x L IH]; cbn; [reflexivity|]. rewrite insert_in, IH. intuition auto.
  Qed.

  Lemma fold_insert_sorted (L : list kv) : NoDup (map fst L) -> sorted_kv kcmp (fold_right (insert_kv kcmp) [] L).
  Proof.
    induction L as [|x L IH]; cbn; intros H; [constructor|].
    inversion H as [|? ? Hnotin Hnd]; subst. apply insert_sorted; [apply IH; exact Hnd|].
    intros y Hy E. apply (proj1 (fold_insert_in L y)) in Hy. apply Hnotin. rewrite <- E. apply in_map. exact Hy.
  Qed.

  Lemma merge_in (ls : list (list kv)) x :
    In x (merge_lists kcmp ls) <-> exists j l, nth_error ls j = Some l /\ In x l.
  Proof.
    unfold merge_lists. rewrite fold_insert_in, in_concat. split.
    - intros (l & Hl & Hx). apply In_nth_error in Hl as [j Hj]. eauto.
    - intros (j & l & Hj & Hx). exists l. split; [eapply nth_error_In; eauto|exact Hx].
  Qed.

  Lemma concat_keys_disjoint (ls : list (list kv)) : NoDup (map fst (concat ls)) ->
    forall i j li lj x y, nth_error ls i = Some li -> nth_error ls j = Some lj ->
      In x li -> In y lj -> fst x = fst y -> i = j.
  Proof.
    induction ls as [|l0 ls IH]; intros H i j li lj x y Hi Hj Hx Hy E.
    - destruct i; discriminate.
    - cbn in H. rewrite map_app in H.
      assert (Hrest : NoDup (map fst (concat ls))) by (eapply ListLemmas.NoDup_app_r; eauto).
      assert (Hin : forall j' l' z, nth_error ls j' = Some l' -> In z l' -> In (fst z) (map fst (concat ls))).
      { intros j' l' z Hj' Hz. apply in_map. apply in_concat. exists l'. split; [eapply nth_error_In; eauto|exact Hz]. }
      destruct i as [|i], j as [|j]; cbn in Hi, Hj; auto.
      + exfalso. injection Hi as <-. apply (ListLemmas.NoDup_app_disjoint _ _ (fst x) H); [apply in_map; exact Hx|].
        rewrite E. eapply Hin; eauto.
      + exfalso. injection Hj as <-. apply (ListLemmas.NoDup_app_disjoint _ _ (fst y) H); [apply in_map; exact Hy|].
        rewrite <- E. eapply Hin; eauto.
      + f_equal. eapply IH; eauto.
  Qed.

  Lemma merge_sorted (ls : list (list kv)) : NoDup (map fst (concat ls)) -> sorted_kv kcmp (merge_lists kcmp ls).
  Proof. apply fold_insert_sorted. Qed.

  Lemma heap_less_irrefl keys rev i : heap_less K kcmp keys rev i i = false.
  Proof. unfold heap_less. destruct (nth i keys None); auto. rewrite (f_refl kcmp ok). reflexivity. Qed.

  Lemma heap_less_trans keys rev i j k : heap_less K kcmp keys rev i j = true -> heap_less K kcmp keys rev j k = true ->
    heap_less K kcmp keys rev i k = true.
  Proof.
    unfold heap_less. destruct (nth i keys None) as [a|], (nth j keys None) as [b|], (nth k keys None) as [d|]; try discriminate.
    destruct (kcmp a b) eqn:E1, (kcmp b d) eqn:E2, rev; cbn; try discriminate; intros _ _.
    - rewrite (o_trans kcmp ok a b d E1 E2). reflexivity.
    - apply (f_gt_lt kcmp ok) in E1, E2. pose proof (o_trans kcmp ok d b a E2 E1) as H.
      apply (f_lt_gt kcmp ok) in H. rewrite H. reflexivity.
  Qed.

  Lemma remove_first_perm x h : In x h -> Permutation h (x :: remove_first x h).
  Proof.
    induction h as [|y h IH]; cbn; [intros []|]. intros Hin.
    destruct (Nat.eqb_spec x y) as [->|Hne]; [reflexivity|].
    destruct Hin as [->|Hin]; [congruence|].
    eapply perm_trans; [apply perm_skip; apply IH; exact Hin|]. apply perm_swap.
  Qed.

  Lemma heap_less_neg_trans keys rev i j k :
    nth i keys None <> None -> nth j keys None <> None -> nth k keys None <> None ->
    heap_less K kcmp keys rev i j = false -> heap_less K kcmp keys rev j k = false ->
    heap_less K kcmp keys rev i k = false.
  Proof.
    unfold heap_less. destruct (nth i keys None) as [a|], (nth j keys None) as [b|], (nth k keys None) as [d|]; try congruence.
    intros _ _ _ H1 H2. destruct rev.
    - assert (L1 : kcmp a b <> Gt) by (destruct (kcmp a b); cbn in H1; congruence).
      assert (L2 : kcmp b d <> Gt) by (destruct (kcmp b d); cbn in H2; congruence).
      pose proof (f_le_trans kcmp ok a b d L1 L2). destruct (kcmp a d); cbn; congruence.
    - assert (L1 : kcmp b a <> Gt).
      { apply (f_not_lt_le kcmp ok). destruct (kcmp a b); cbn in H1; congruence. }
      assert (L2 : kcmp d b <> Gt).
      { apply (f_not_lt_le kcmp ok). destruct (kcmp b d); cbn in H2; congruence. }
      pose proof (f_le_trans kcmp ok d b a L2 L1) as L3. apply (f_not_lt_le kcmp ok) in L3.
      destruct (kcmp a d); cbn; congruence.
  Qed.

  Lemma scan_min keys rev : forall r b, (forall y, In y (b :: r) -> nth y keys None <> None) ->
    let m := fold_left (fun b y => if heap_less K kcmp keys rev y b then y else b) r b in
    In m (b :: r) /\ forall y, In y (b :: r) -> heap_less K kcmp keys rev y m = false.
  Proof.
    induction r as [|z r IH]; intros b Hsome; cbn [fold_left].
    - split; [left; reflexivity|]. intros y [<-|[]]. apply heap_less_irrefl.
    - set (b' := if heap_less K kcmp keys rev z b then z else b).
      assert (Hb' : b' = z \/ b' = b) by (unfold b'; destruct (heap_less K kcmp keys rev z b); auto).
      destruct (IH b') as [Hin Hmin].
      { intros y [<-|Hy]; [destruct Hb' as [-> | ->]; apply Hsome; cbn; auto|apply Hsome; right; right; exact Hy]. }
      set (m := fold_left _ r b') in *.
      assert (Hm : In m (b :: z :: r)).
      { destruct Hin as [<-|Hin]; [destruct Hb' as [-> | ->]; cbn; auto|right; right; exact Hin]. }
      split; [exact Hm|].
      intros y [<-|[<-|Hy]]; [| |apply Hmin; right; exact Hy].
      + unfold b' in *. destruct (heap_less K kcmp keys rev z b) eqn:Ez.
        * destruct (heap_less K kcmp keys rev b m) eqn:Eb; [|reflexivity].
          pose proof (heap_less_trans keys rev z b m Ez Eb) as Hc. rewrite (Hmin z (or_introl eq_refl)) in Hc. discriminate.
        * apply Hmin. left. reflexivity.
      + unfold b' in *. destruct (heap_less K kcmp keys rev z b) eqn:Ez.
        * apply Hmin. left. reflexivity.
        * apply (heap_less_neg_trans keys rev z b m);
            [apply Hsome; right; left; reflexivity|apply Hsome; left; reflexivity|apply Hsome; exact Hm
            |exact Ez|apply Hmin; left; reflexivity].
  Qed.

  Lemma pop_scan_ok : pop_ok K kcmp (pop_scan K kcmp).
  Proof.
    intros keys rev h Hsome. unfold pop_scan. destruct h as [|x r]; [reflexivity|].
    destruct (scan_min keys rev r x Hsome) as [Hin Hmin].
    split; [apply remove_first_perm; exact Hin|exact Hmin].
  Qed.
End MergeFacts.

(* The merged iterator over children that behave like cursors over strictly sorted lists with no
   key in common shows - for every finite sequence of First/Last/Seek/Next/Prev, whatever heap
   implementation meets the contract - exactly what the reference cursor over the merge of the
   lists shows; it never gets stuck.  Stated for the outputs of a run and for the machine as a black box. *)
Lemma merged_correct (K V C : Type) (kcmp : K -> K -> comparison) (chstep : C -> move K -> C)
  (chobs : C -> option (K * V)) (pop : list (option K) -> bool -> list nat -> option (nat * list nat))
  (ls : list (list (K * V))) (its : list C) :
  ord_ok kcmp -> pop_ok K kcmp pop ->
  Forall (sorted_kv kcmp) ls -> NoDup (map fst (concat ls)) ->
  Forall2 (fun c l => refines kcmp chstep chobs c l) its ls ->
  (forall ms, m_run K V C chstep chobs pop (m_init its) ms = Some (run_cursor kcmp (merge_lists kcmp ls) ms)) /\
  refines kcmp (merged_step K V C chstep chobs pop) (m_kv K V C chobs) (m_init its) (merge_lists kcmp ls).
Proof.
  intros ok Hpop Hs Hnd Href.
  assert (Hls : forall j l, nth_error ls j = Some l -> sorted_kv kcmp l).
  { intros j l Hj. rewrite Forall_forall in Hs. apply Hs. eapply nth_error_In; eauto. }
  pose proof (merge_sorted K V kcmp ok ls Hnd) as HMs.
  pose proof (concat_keys_disjoint K V ls Hnd) as Hdisj.
  pose proof (R_init K V C kcmp chstep chobs ls (merge_lists kcmp ls) its Href) as HR.
  split; [intros ms; apply (merged_run_from K V C kcmp ok chstep chobs pop Hpop ls (merge_lists kcmp ls))
         |apply (merged_refines_from K V C kcmp ok chstep chobs pop Hpop ls (merge_lists kcmp ls))];
    auto using merge_in.
Qed.

Theorem merged_refines (K V C : Type) (kcmp : K -> K -> comparison) (chstep : C -> move K -> C)
  (chobs : C -> option (K * V)) (pop : list (option K) -> bool -> list nat -> option (nat * list nat))
  (ls : list (list (K * V))) (its : list C) :
  ord_ok kcmp -> pop_ok K kcmp pop ->
  Forall (sorted_kv kcmp) ls -> NoDup (map fst (concat ls)) ->
  Forall2 (fun c l => refines kcmp chstep chobs c l) its ls ->
  forall ms, m_run K V C chstep chobs pop (m_init its) ms = Some (run_cursor kcmp (merge_lists kcmp ls) ms).
Proof. intros ok Hpop Hs Hnd Href. apply merged_correct; assumption. Qed.

Theorem merged_is_cursor (K V C : Type) (kcmp : K -> K -> comparison) (chstep : C -> move K -> C)
  (chobs : C -> option (K * V)) (pop : list (option K) -> bool -> list nat -> option (nat * list nat))
  (ls : list (list (K * V))) (its : list C) :
  ord_ok kcmp -> pop_ok K kcmp pop ->
  Forall (sorted_kv kcmp) ls -> NoDup (map fst (concat ls)) ->
  Forall2 (fun c l => refines kcmp chstep chobs c l) its ls ->
  refines kcmp (merged_step K V C chstep chobs pop) (m_kv K V C chobs) (m_init its) (merge_lists kcmp ls).
Proof. intros ok Hpop Hs Hnd Href. apply merged_correct; assumption. Qed.

Lemma merge_length {K V} (kcmp : K -> K -> comparison) (ls : list (list (K * V))) :
  length (merge_lists kcmp ls) = length (concat ls).
Proof.
  unfold merge_lists. induction (concat ls) as [|x L IH]; cbn; [reflexivity|].
  rewrite <- IH. generalize (fold_right (insert_kv kcmp) [] L). intros l.
  induction l as [|y l IHl]; cbn; [reflexivity|]. destruct (kcmp (fst x) (fst y)); cbn; auto.
Qed.
