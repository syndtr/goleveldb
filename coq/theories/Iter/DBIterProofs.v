(* Iter/DBIterProofs.v — dbIter (Iter/DBIter.v) refines the cursor over the live pairs:
   simulation relation between machine states and cursor positions, preserved by each of the five
   calls from every related state (hence for every call sequence, including direction reversals). *)
From GL Require Import Base.OrderProofs Codec.IKeyProofs Iter.CursorProofs Iter.DBIter Iter.DBIterCong
  Iter.LiveProofs.
From GL Require Mem.ListLemmas.
From Coq Require Import Lia Arith.
Close Scope N_scope.

Lemma app_snoc_cons {A} (a : list A) x b : (a ++ [x]) ++ b = a ++ x :: b.
Proof. rewrite <- app_assoc. reflexivity. Qed.

Section DBIterProofs.
  Variable c : comparer.
  Hypothesis ok : comparer_ok c.
  Variable p : kparams.
  Hypothesis dpok : dbparams_ok p.
  Variable C : Type.
  Variable chstep : C -> move ikey -> C.
  Variable chobs : C -> option entry.
  Variable seq : N.
  Hypothesis Hseq : (seq <= keyMaxSeq p)%N.
  Variable strict : bool.
  Variable l : list entry.
  Hypothesis Hsorted : sorted_kv (icmp c) l.
  Hypothesis Hwf : Forall (entry_wf p) l.

  Notation st := (dbstate C).
  Notation ukey e := (uk (fst e)).
  Notation vis := (visible seq).
  Notation isval := (is_val p).
  Notation lf := (live_from c p seq).
  Notation esorted := (sorted_kv (icmp c)).
  Notation LP := (live_pairs c p seq l).
  Notation child_at ch cp := (refines_from (icmp c) chstep chobs ch l cp).
  Notation next_loop := (next_loop c p C chstep chobs seq strict).
  Notation prev_loop := (prev_loop c p C chstep chobs seq strict).
  Notation prev_ := (prev_ c p C chstep chobs seq strict).
  Notation rewind := (rewind c p C chstep chobs seq strict).
  Notation db_step := (db_step c p C chstep chobs seq strict).
  Notation parse_cur := (parse_cur p C chobs).
  Notation skip_after := (skip_after seq).
  Notation adv := (adv_ c p C chstep chobs seq strict).
  Notation back := (back_ c p C chstep chobs seq strict).

  Lemma pok : kparams_ok p. Proof. exact (proj1 dpok). Qed.

  Notation child_obs := (rf_obs_mid (icmp c) chstep chobs l).
  Notation child_none := (rf_none (icmp c) chstep chobs l).
  Notation child_next_none := (rf_next_none (icmp c) chstep chobs l).
  Notation child_prev_none := (rf_prev_none (icmp c) chstep chobs l).

  Lemma child_next_some ch A e e' B : l = A ++ e :: e' :: B -> child_at ch (At (length A)) ->
    child_at (chstep ch MNext) (At (length (A ++ [e]))).
  Proof. rewrite last_length. apply rf_next_some. Qed.

  Lemma child_prev_some ch (A : list entry) x : child_at ch (At (length (A ++ [x]))) -> child_at (chstep ch MPrev) (At (length A)).
  Proof. rewrite last_length. apply rf_prev_some. Qed.

  Lemma wf_in e : In e l -> entry_wf p e.
  Proof. rewrite Forall_forall in Hwf. apply Hwf. Qed.

  Lemma parse_wf e : entry_wf p e -> parse_rec p (fst e) = Some (ukey e, ik_seq (fst e), ik_kind (fst e)).
  Proof.
    intros W. unfold parse_rec. destruct dpok as (_ & _ & Hdv).
    assert (E : (keyTypeVal p <? ik_kind (fst e))%N = false).
    { apply N.ltb_ge. destruct W as [-> | ->]; [exact Hdv|apply N.le_refl]. }
    rewrite E. reflexivity.
  Qed.

  Lemma parse_cur_at ch e : chobs ch = Some e -> entry_wf p e ->
    parse_cur ch = Some (ukey e, ik_seq (fst e), ik_kind (fst e), snd e).
  Proof. intros H W. unfold DBIter.parse_cur. rewrite H. pose proof (parse_wf _ W) as P. destruct e as [ik v]. cbn in *. rewrite P. reflexivity. Qed.

  Lemma kind_del_val e : entry_wf p e -> (ik_kind (fst e) =? keyTypeDel p)%N = negb (isval e).
  Proof.
    intros W. unfold is_val. destruct pok as (_ & _ & Hne & _).
    destruct W as [-> | ->].
    - rewrite N.eqb_refl. assert ((keyTypeDel p =? keyTypeVal p)%N = false) as -> by (apply N.eqb_neq; exact Hne). reflexivity.
    - rewrite N.eqb_refl. assert ((keyTypeVal p =? keyTypeDel p)%N = false) as -> by (apply N.eqb_neq; congruence). reflexivity.
  Qed.

  (* gsk s: the scan state (the sk of live_from) that dbIter's saved key stands for; go_emit: the test of
     next()'s loop that an entry's user key is beyond it.  next_post / prev_post below: the outcome of
     next() / prev() entered with the raw iterator between A and B (A and the passed suffix P). *)
  Definition gsk (s : st) : option bytes := if is_dir_soi (d_dir s) then None else Some (d_key s).
  Definition go_emit (sk : option bytes) (u : bytes) : bool :=
    match sk with None => true | Some k => is_gt (cmp c u k) end.

  Definition fwd_at (s' : st) (A' : list entry) (e : entry) : Prop :=
    d_dir s' = DirForward /\ d_key s' = ukey e /\ d_value s' = snd e /\ d_err s' = false /\
    child_at (d_child s') (At (length A')).

  Definition eoi_at (s' : st) : Prop :=
    d_dir s' = DirEOI /\ d_err s' = false /\ exists cp, child_at (d_child s') cp.

  Definition next_post (r : res C) (sk : option bytes) (A B : list entry) : Prop :=
    match lf sk B with
    | [] => exists s', r = Ok s' false /\ eoi_at s'
    | kv :: _ => exists s' B1 e B2, r = Ok s' true /\ B = B1 ++ e :: B2 /\ lf sk B1 = [] /\
        vis e = true /\ isval e = true /\ kv = (ukey e, snd e) /\ go_emit sk (ukey e) = true /\
        (forall x, In x B1 -> vis x = true -> cmp c (ukey x) (ukey e) = Lt) /\
        fwd_at s' (A ++ B1) e
    end.

  Lemma go_emit_same sk u : go_emit sk u = true -> same_ukey c sk u = false.
  Proof.
    destruct sk as [k|]; cbn; auto. destruct (cmp c u k); cbn; congruence.
  Qed.

  Lemma go_noemit_same sk u : go_emit sk u = false -> (forall k, sk = Some k -> cmp c u k <> Lt) ->
    same_ukey c sk u = true.
  Proof.
    destruct sk as [k|]; cbn; [|discriminate]. intros H Hl. specialize (Hl k eq_refl).
    destruct (cmp c u k); cbn in *; congruence.
  Qed.

  Lemma go_emit_trans sk u u' : go_emit (Some u) u' = true -> (forall k, sk = Some k -> cmp c u k <> Lt) ->
    go_emit sk u' = true.
  Proof.
    destruct sk as [k|]; cbn; auto. intros H Hl. specialize (Hl k eq_refl).
    destruct (cmp c u' u) eqn:E; cbn in H; try discriminate.
    apply (cmp_gt_lt c ok) in E.
    assert (cmp c k u' = Lt).
    { apply (f_le_lt_trans (cmp c) (cmp_ord_ok c ok) k u u'); [|exact E].
      apply (f_not_lt_le (cmp c) (cmp_ord_ok c ok)). exact Hl. }
    apply (cmp_lt_gt c ok) in H0. rewrite H0. reflexivity.
  Qed.

  Lemma go_emit_gt u u' : go_emit (Some u) u' = true -> cmp c u u' = Lt.
  Proof. cbn. destruct (cmp c u' u) eqn:E; cbn; try discriminate. intros _. apply (cmp_gt_lt c ok). exact E. Qed.

  (* an entry e0 that the scan passes over, changing its state from sk to sk' *)
  Lemma next_post_cons r sk sk' A e0 B' : next_post r sk' (A ++ [e0]) B' ->
    (forall L, lf sk (e0 :: L) = lf sk' L) ->
    (forall u, go_emit sk' u = true -> go_emit sk u = true /\ (vis e0 = true -> cmp c (ukey e0) u = Lt)) ->
    next_post r sk A (e0 :: B').
  Proof.
    unfold next_post. intros H Hlf Hgo. rewrite Hlf. destruct (lf sk' B') as [|kv rest]; [exact H|].
    destruct H as (s' & B1 & e & B2 & Hr & HB & Hlf1 & Hv & Hvl & Hkv & Hem & Hlt & Hfw).
    destruct (Hgo _ Hem) as [Hem' Hlt0]. rewrite app_snoc_cons in Hfw.
    exists s', (e0 :: B1), e, B2. split; [exact Hr|]. split; [cbn; rewrite HB; reflexivity|].
    split; [rewrite Hlf; exact Hlf1|]. split; [exact Hv|]. split; [exact Hvl|]. split; [exact Hkv|].
    split; [exact Hem'|]. split; [|exact Hfw]. intros x [<-|Hx] Hvx; auto.
  Qed.

  Lemma next_loop_spec : forall B A s f,
    l = A ++ B -> B <> [] -> child_at (d_child s) (At (length A)) -> d_err s = false ->
    length B <= f -> lower_ok c seq (gsk s) B ->
    next_post (next_loop f s) (gsk s) A B.
  Proof.
    induction B as [|e0 B' IH]; intros A s f Hl Hne Hch Herr Hf Hlow; [congruence|].
    destruct f as [|f]; [cbn in Hf; lia|]. cbn in Hf.
    assert (Hin0 : In e0 l) by (rewrite Hl; apply in_or_app; right; left; reflexivity).
    pose proof (wf_in e0 Hin0) as W0.
    assert (Hs0 : esorted (e0 :: B')).
    { rewrite Hl in Hsorted. apply (sorted_app_inv (icmp c)) in Hsorted. tauto. }
    pose proof (child_obs _ A e0 B' Hl Hch) as Hobs.
    pose proof (lower_ok_tail c seq _ _ _ Hlow) as Hlow'.
    (* what advancing does, for any state s1 with the same child *)
    assert (Hadv : forall s1, d_child s1 = d_child s -> d_err s1 = false -> lower_ok c seq (gsk s1) B' ->
              next_post (adv f s1) (gsk s1) (A ++ [e0]) B').
    { intros s1 Hc1 He1 Hl1. unfold adv_. rewrite Hc1.
      destruct B' as [|e1 B''].
      - pose proof (child_next_none _ A e0 Hl Hch) as Hn.
        rewrite (child_none _ _ Hn (or_intror eq_refl)). cbn.
        eexists. split; [reflexivity|]. repeat split; cbn; auto. exists EOI. exact Hn.
      - pose proof (child_next_some _ A e0 e1 B'' Hl Hch) as Hn.
        assert (Hl' : l = (A ++ [e0]) ++ e1 :: B'') by (rewrite app_snoc_cons; exact Hl).
        rewrite (child_obs _ _ e1 B'' Hl' Hn). cbn [is_some].
        apply (IH (A ++ [e0]) (set_child C s1 (chstep (d_child s) MNext)) f Hl'); auto; try discriminate. lia. }
    rewrite next_unfold, (parse_cur_at _ e0 Hobs W0).
    change ((ik_seq (fst e0) <=? seq)%N) with (vis e0).
    destruct (vis e0) eqn:Ev.
    2:{ apply (next_post_cons _ _ (gsk s)); [apply Hadv; auto|intros L; cbn; rewrite Ev; reflexivity|].
        intros u Hu. split; [exact Hu|congruence]. }
    rewrite (kind_del_val e0 W0).
    destruct (isval e0) eqn:Evl; cbn [negb].
    - assert (Hkv : (ik_kind (fst e0) =? keyTypeVal p)%N = true) by exact Evl. rewrite Hkv.
      change (is_dir_soi (d_dir s) || is_gt (cmp c (ukey e0) (d_key s))) with
        (if is_dir_soi (d_dir s) then true else is_gt (cmp c (ukey e0) (d_key s))).
      assert (Hge : (if is_dir_soi (d_dir s) then true else is_gt (cmp c (ukey e0) (d_key s))) = go_emit (gsk s) (ukey e0)).
      { unfold gsk. destruct (is_dir_soi (d_dir s)); reflexivity. }
      rewrite Hge. destruct (go_emit (gsk s) (ukey e0)) eqn:Hem.
      + unfold next_post. cbn [live_from]. rewrite Ev, (go_emit_same _ _ Hem), Evl.
        eexists _, [], e0, B'. repeat split; auto.
        * intros x [].
        * cbn. rewrite app_nil_r. exact Hch.
      + (* an older version of the current key: skipped *)
        assert (Hsame : same_ukey c (gsk s) (ukey e0) = true).
        { apply go_noemit_same; auto. intros k Hk. apply (Hlow k Hk e0 (or_introl eq_refl) Ev). }
        apply (next_post_cons _ _ (gsk s)); [apply Hadv; auto|intros L; cbn; rewrite Ev, Hsame; reflexivity|].
        intros u Hu. split; [exact Hu|intros _].
        apply (same_ukey_true c ok) in Hsame. rewrite Hsame in Hu. apply go_emit_gt, Hu.
    - (* tombstone: remember the key, advance *)
      apply (next_post_cons _ _ (Some (ukey e0))).
      + apply (Hadv (set_dir C (set_key C s (ukey e0)) DirForward) eq_refl Herr).
        apply (lower_ok_sorted c ok). exact Hs0.
      + intros L. cbn. rewrite Ev, Evl. destruct (same_ukey c (gsk s) (ukey e0)) eqn:Es; auto.
        apply (same_ukey_true c ok) in Es. rewrite Es. reflexivity.
      + intros u Hu. split; [|intros _; apply go_emit_gt, Hu].
        eapply go_emit_trans; eauto. intros k Hk. apply (Hlow k Hk e0 (or_introl eq_refl) Ev).
  Qed.

  (* what the processed suffix P amounts to: nothing live yet (del), or exactly the saved pair *)
  Definition pinv (del : bool) (s : st) (P : list entry) : Prop :=
    if del then lf None P = []
    else lf None P = [(d_key s, d_value s)] /\
         (forall x, In x P -> vis x = true -> cmp c (ukey x) (d_key s) <> Lt) /\
         (exists y, In y P /\ ukey y = d_key s).

  Definition prev_post (r : res C) (A P : list entry) : Prop :=
    exists A1 A2 s' ret, A = A1 ++ A2 /\ r = Ok s' ret /\ d_err s' = false /\
      child_at (d_child s') (pos_end A1) /\
      if ret then d_dir s' = DirBackward /\ pinv false s' (A2 ++ P) /\
                  (A1 = [] \/ exists A10 x, A1 = A10 ++ [x] /\ vis x = true /\ cmp c (ukey x) (d_key s') = Lt)
      else A1 = [] /\ d_dir s' = DirSOI /\ lf None (A2 ++ P) = [].

  Lemma prev_loop_spec : forall A P T s del f,
    l = A ++ P ++ T -> A <> [] -> child_at (d_child s) (pos_end A) -> d_err s = false ->
    d_dir s = DirBackward -> length A <= f -> pinv del s P ->
    prev_post (prev_loop f s del) A P.
  Proof.
    induction A as [|e0 A0 IH] using rev_ind; intros P T s del f Hl Hne Hch Herr Hdir Hf Hinv; [congruence|].
    clear Hne. rewrite last_length in Hf. destruct f as [|f]; [lia|].
    rewrite pos_end_snoc in Hch.
    assert (Hl0 : l = A0 ++ e0 :: P ++ T) by (rewrite Hl, app_snoc_cons; reflexivity).
    assert (Hin0 : In e0 l) by (rewrite Hl0; apply in_or_app; right; left; reflexivity).
    pose proof (wf_in e0 Hin0) as W0.
    assert (Hs0 : esorted (e0 :: P)).
    { pose proof Hsorted as Hs. rewrite Hl0 in Hs. apply (sorted_app_inv (icmp c)) in Hs as (_ & Hs & _).
      change (e0 :: P ++ T) with ((e0 :: P) ++ T) in Hs. apply (sorted_app_inv (icmp c)) in Hs. tauto. }
    pose proof (child_obs _ A0 e0 (P ++ T) Hl0 Hch) as Hobs.
    (* stepping back, for any state s1 with the same child *)
    assert (Hback : forall s1 del1, d_child s1 = d_child s -> d_err s1 = false -> d_dir s1 = DirBackward ->
      pinv del1 s1 (e0 :: P) -> prev_post (back f s1 del1) (A0 ++ [e0]) P).
    { intros s1 del1 Hc1 He1 Hd1 Hi1. unfold back_. rewrite Hc1.
      destruct (ListLemmas.list_snoc_cases A0) as [->|(A00 & x & ->)].
      - pose proof (child_prev_none _ Hch) as Hn.
        rewrite (child_none _ _ Hn (or_introl eq_refl)). cbn [is_some]. unfold prev_finish.
        destruct del1.
        + exists [], [e0], (set_dir C (set_child C s1 (chstep (d_child s) MPrev)) DirSOI), false.
          repeat split; auto.
        + exists [], [e0], (set_child C s1 (chstep (d_child s) MPrev)), true.
          repeat split; auto; try apply Hi1.
      - pose proof (child_prev_some _ A00 x Hch) as Hn.
        assert (Hl' : l = A00 ++ x :: (e0 :: P) ++ T) by (rewrite Hl0, app_snoc_cons; reflexivity).
        rewrite (child_obs _ A00 x _ Hl' Hn). cbn [is_some].
        assert (Hpe : pos_end (A00 ++ [x]) = At (length A00)) by apply pos_end_snoc.
        destruct (IH (e0 :: P) T (set_child C s1 (chstep (d_child s) MPrev)) del1 f) as (A1 & A2 & s' & ret & HA & Hr & He' & Hc' & Hret); auto.
        + destruct A00; discriminate.
        + rewrite Hpe. exact Hn.
        + lia.
        + exists A1, (A2 ++ [e0]), s', ret.
          split; [rewrite HA, app_assoc; reflexivity|].
          rewrite (app_snoc_cons A2 e0 P). repeat split; auto. }
    rewrite prev_unfold, (parse_cur_at _ e0 Hobs W0).
    change ((ik_seq (fst e0) <=? seq)%N) with (vis e0).
    destruct (vis e0) eqn:Ev.
    2:{ apply Hback; auto. unfold pinv in *. destruct del.
      - cbn. rewrite Ev. exact Hinv.
      - destruct Hinv as (H1 & H2 & y & Hy & Hyk). cbn [live_from]. rewrite Ev. split; [exact H1|]. split.
        + intros x [<-|Hx] Hvx; [congruence|auto].
        + exists y. split; [right; exact Hy|exact Hyk]. }
    destruct (negb del && is_lt (cmp c (ukey e0) (d_key s))) eqn:Estop.
    - (* a smaller user key while a live pair is saved: stop here *)
      apply andb_prop in Estop as [Ed El]. destruct del; [discriminate|].
      exists (A0 ++ [e0]), [], s, true. rewrite app_nil_r, pos_end_snoc. repeat split; auto; try apply Hinv.
      right. exists A0, e0. repeat split; auto. destruct (cmp c (ukey e0) (d_key s)); cbn in El; congruence.
    - (* absorb e0: it decides (for now) the fate of its user key *)
      assert (Hnil : lf (Some (ukey e0)) P = []).
      { destruct (live_prefix c ok p seq (Some (ukey e0)) P) as (pre & Hpre & Hlen).
        unfold pinv in Hinv. destruct del.
        - rewrite Hinv in Hpre. destruct pre; [|discriminate]. cbn in Hpre. congruence.
        - destruct Hinv as (H1 & _ & _). cbn in Estop.
          destruct (lf (Some (ukey e0)) P) as [|[k v] rest] eqn:E; [reflexivity|exfalso].
          assert (Hkv : In (k, v) (lf (Some (ukey e0)) P)) by (rewrite E; left; reflexivity).
          apply (live_keys_gt c ok p seq P (ukey e0)) in Hkv.
          2:{ apply (sorted_cons_inv (icmp c)) in Hs0. tauto. }
          2:{ apply (lower_ok_sorted c ok). exact Hs0. }
          rewrite H1 in Hpre. destruct pre as [|q pre]; cbn in Hpre.
          + injection Hpre as Hq1 Hq2 Hq3. rewrite <- Hq1 in Hkv. rewrite Hkv in Estop. discriminate.
          + destruct pre; [|cbn in Hlen; lia]. discriminate. }
      cbv zeta. rewrite (kind_del_val e0 W0).
      destruct (isval e0) eqn:Evl; cbn [negb].
      + (* value: becomes the saved pair *)
        apply Hback; auto. unfold pinv. cbn [live_from same_ukey d_key d_value set_kv]. rewrite Ev, Evl, Hnil.
        split; [reflexivity|]. split.
        * intros x [<-|Hx] _; [rewrite (cmp_refl c ok); discriminate|].
          apply (f_not_lt_le (cmp c) (cmp_ord_ok c ok)). apply (esorted_cons_ukey c e0 P Hs0 x Hx).
        * exists e0. split; [left; reflexivity|reflexivity].
      + apply Hback; auto. unfold pinv. cbn [live_from same_ukey]. rewrite Ev, Evl. exact Hnil.
  Qed.

  Lemma prev_spec A T s f : l = A ++ T -> child_at (d_child s) (pos_end A) -> d_err s = false ->
    length A <= f -> prev_post (prev_ f s) A [].
  Proof.
    intros Hl Hch Herr Hf. unfold DBIter.prev_. cbn [d_child set_dir].
    destruct A as [|a A'] eqn:EA.
    - rewrite (child_none _ _ Hch (or_introl eq_refl)). cbn [is_some prev_finish].
      exists [], [], (set_dir C (set_dir C s DirBackward) DirSOI), false. repeat split; auto.
    - rewrite <- EA in *. destruct (ListLemmas.list_snoc_cases A) as [HA|(A0 & x & HA)]; [congruence|].
      assert (Hobs : chobs (d_child s) = Some x).
      { rewrite HA in Hch. rewrite pos_end_snoc in Hch. apply (child_obs _ A0 x T); auto.
        rewrite Hl, HA, app_snoc_cons. reflexivity. }
      rewrite Hobs. cbn [is_some].
      apply (prev_loop_spec A [] T); auto.
      + congruence.
      + reflexivity.
  Qed.

  Lemma rewind_spec : forall A Bx s f, l = A ++ Bx -> child_at (d_child s) (At (length A)) ->
    length A < f ->
    exists A1 A2 ch', A = A1 ++ A2 /\ (forall x, In x A2 -> cmp c (ukey x) (d_key s) <> Lt) /\
      child_at ch' (pos_end A1) /\
      ((A1 = [] /\ rewind f s = Ok (set_dir C (set_child C s ch') DirSOI) false) \/
       (exists A10 x f', A1 = A10 ++ [x] /\ cmp c (ukey x) (d_key s) = Lt /\ length A1 <= f' /\
                         rewind f s = prev_ f' (set_child C s ch'))).
  Proof.
    induction A as [|x A0 IH] using rev_ind; intros Bx s f Hl Hch Hf.
    - destruct f as [|f]; [lia|]. rewrite rewind_unfold'. cbv zeta.
      pose proof (child_prev_none _ Hch) as Hn.
      rewrite (child_none _ _ Hn (or_introl eq_refl)). cbn [is_some].
      exists [], [], (chstep (d_child s) MPrev). repeat split; auto; intros x [].
    - rewrite last_length in Hf. destruct f as [|f]; [lia|]. rewrite rewind_unfold'. cbv zeta.
      pose proof (child_prev_some _ A0 x Hch) as Hn.
      assert (Hl' : l = A0 ++ x :: Bx) by (rewrite Hl, app_snoc_cons; reflexivity).
      pose proof (child_obs _ A0 x Bx Hl' Hn) as Hobs.
      assert (Wx : entry_wf p x) by (apply wf_in; rewrite Hl'; apply in_or_app; right; left; reflexivity).
      rewrite Hobs, (parse_cur_at _ x Hobs Wx). cbn [is_some].
      destruct (cmp c (ukey x) (d_key s)) eqn:E; cbn [is_lt].
      2:{ exists (A0 ++ [x]), [], (chstep (d_child s) MPrev). rewrite app_nil_r, pos_end_snoc.
          split; [reflexivity|]. split; [intros y []|]. split; [exact Hn|].
          right. exists A0, x, (S f). repeat split; auto. rewrite last_length. lia. }
      (* not below the current key: x joins the passed suffix *)
      all: destruct (IH (x :: Bx) (set_child C s (chstep (d_child s) MPrev)) f Hl' Hn) as (A1 & A2 & ch' & HA & H2 & Hc' & Hcase); [lia|];
        exists A1, (A2 ++ [x]), ch'; split; [rewrite HA, app_assoc; reflexivity|]; split; [|split; [exact Hc'|exact Hcase]];
        intros y Hy; apply in_app_or in Hy as [Hy|[<-|[]]]; [apply H2; exact Hy|cbn; rewrite E; discriminate].
  Qed.

  Variable fuel : nat.
  Hypothesis Hfuel : length l < fuel.

  (* DirBackward: the raw iterator stands on the last entry of A, a visible entry of a smaller user key, or at
     SOI; no visible entry of B is below the saved key, and the first live pair of B is the saved one *)
  Definition R (s : st) (sp : pos) : Prop :=
    d_err s = false /\
    match d_dir s with
    | DirSOI => sp = SOI /\ child_at (d_child s) SOI
    | DirEOI => sp = EOI /\ exists cp, child_at (d_child s) cp
    | DirForward => exists A e B, l = A ++ e :: B /\ fwd_at s A e /\ vis e = true /\ isval e = true /\
        (forall x, In x A -> vis x = true -> cmp c (ukey x) (ukey e) = Lt) /\
        sp = At (length (lf None A))
    | DirBackward => exists A B, l = A ++ B /\ child_at (d_child s) (pos_end A) /\
        (A = [] \/ exists A0 x, A = A0 ++ [x] /\ vis x = true /\ cmp c (ukey x) (d_key s) = Lt) /\
        (forall y, In y B -> vis y = true -> cmp c (ukey y) (d_key s) <> Lt) /\
        (exists rest, lf None B = (d_key s, d_value s) :: rest) /\
        sp = At (length (lf None A))
    end.

  Lemma LP_sorted : sorted_kv (cmp c) LP.
  Proof. apply (live_pairs_sorted c ok). exact Hsorted. Qed.

  Lemma l_app_ukey A B : l = A ++ B -> forall a b, In a A -> In b B -> cmp c (ukey a) (ukey b) <> Gt.
  Proof. intros Hl. apply (esorted_app_ukey c). rewrite <- Hl. exact Hsorted. Qed.

  Lemma LP_fwd A e B : l = A ++ e :: B -> vis e = true -> isval e = true ->
    (forall x, In x A -> vis x = true -> cmp c (ukey x) (ukey e) = Lt) ->
    LP = lf None A ++ (ukey e, snd e) :: lf (Some (ukey e)) B.
  Proof.
    intros Hl Hv Hvl Hhead. unfold live_pairs. rewrite Hl at 1. rewrite (lf_split c ok).
    - cbn. rewrite Hv, Hvl. reflexivity.
    - intros x y Hx [<-|Hy] Hvx Hvy; [auto|].
      eapply (OrderProofs.lt_le_trans c ok); [apply Hhead; eauto|].
      apply (l_app_ukey (A ++ [e]) B); [rewrite app_snoc_cons; exact Hl|apply in_or_app; right; left; reflexivity|exact Hy].
  Qed.

  Lemma LP_bwd A B k : l = A ++ B ->
    (A = [] \/ exists A0 x, A = A0 ++ [x] /\ vis x = true /\ cmp c (ukey x) k = Lt) ->
    (forall y, In y B -> vis y = true -> cmp c (ukey y) k <> Lt) ->
    LP = lf None A ++ lf None B.
  Proof.
    intros Hl HA HB. unfold live_pairs. rewrite Hl at 1. apply (lf_split_at c ok p seq A B k); auto.
    pose proof Hsorted as Hs. rewrite Hl in Hs. apply (sorted_app_inv (icmp c)) in Hs. tauto.
  Qed.

  Lemma R_obs s sp : R s sp -> db_kv s = cobs LP sp /\ db_valid s = is_some (cobs LP sp).
  Proof.
    intros [Herr HR]. unfold db_kv, db_valid. rewrite Herr. cbn [negb andb].
    destruct (d_dir s).
    - destruct HR as [-> _]. split; reflexivity.
    - destruct HR as [-> _]. split; reflexivity.
    - destruct HR as (A & B & Hl & _ & HA & HB & (rest & Hrest) & ->).
      rewrite (LP_bwd A B (d_key s) Hl HA HB), Hrest. cbn [cobs]. rewrite nth_error_middle. split; reflexivity.
    - destruct HR as (A & e & B & Hl & (_ & Hk & Hv & _) & Hve & Hvl & Hhead & ->).
      rewrite (LP_fwd A e B Hl Hve Hvl Hhead). cbn [cobs]. rewrite nth_error_middle, Hk, Hv. split; reflexivity.
  Qed.

  Lemma LP_index_unique i j a b : nth_error LP i = Some a -> nth_error LP j = Some b -> fst a = fst b -> i = j.
  Proof. apply (sorted_nth_key_inj (cmp c) (cmp_ord_ok c ok) LP LP_sorted). Qed.

  Lemma next_post_R r sk A B LA' :
    l = A ++ B -> next_post r sk A B -> LP = LA' ++ lf sk B ->
    (forall e, In e B -> go_emit sk (ukey e) = true -> forall x, In x A -> vis x = true -> cmp c (ukey x) (ukey e) = Lt) ->
    exists s' ret, r = Ok s' ret /\ ret = db_valid s' /\
      R s' (if Nat.ltb (length LA') (length LP) then At (length LA') else EOI).
  Proof.
    intros Hl Hpost HLP Hhead. unfold next_post in Hpost.
    destruct (lf sk B) as [|kv rest] eqn:Elf.
    - destruct Hpost as (s' & -> & Hd & He & Hc). exists s', false.
      split; [reflexivity|]. split; [unfold db_valid; rewrite Hd, He; reflexivity|].
      rewrite HLP, app_nil_r, Nat.ltb_irrefl. split; [exact He|]. rewrite Hd. split; [reflexivity|exact Hc].
    - destruct Hpost as (s' & B1 & e & B2 & -> & HB & Hlf1 & Hv & Hvl & Hkv & Hem & Hlt & Hfw).
      exists s', true. split; [reflexivity|]. destruct Hfw as (Hd & Hk & Hva & He & Hc).
      split; [unfold db_valid; rewrite Hd, He; reflexivity|].
      assert (Hlen : Nat.ltb (length LA') (length LP) = true).
      { apply Nat.ltb_lt. rewrite HLP, app_length. cbn. lia. }
      rewrite Hlen. split; [exact He|]. rewrite Hd.
      assert (Hl' : l = (A ++ B1) ++ e :: B2) by (rewrite Hl, HB, app_assoc; reflexivity).
      assert (Hhead' : forall x, In x (A ++ B1) -> vis x = true -> cmp c (ukey x) (ukey e) = Lt).
      { intros x Hx Hvx. apply in_app_or in Hx as [Hx|Hx]; [|apply Hlt; assumption].
        apply (Hhead e); auto. rewrite HB. apply in_or_app. right. left. reflexivity. }
      exists (A ++ B1), e, B2. split; [exact Hl'|]. split; [repeat split; assumption|].
      split; [exact Hv|]. split; [exact Hvl|]. split; [exact Hhead'|].
      f_equal. apply (LP_index_unique _ _ (ukey e, snd e) (ukey e, snd e)); [| |reflexivity].
      + rewrite HLP, <- Hkv. apply nth_error_middle.
      + rewrite (LP_fwd _ e B2 Hl' Hv Hvl Hhead'). apply nth_error_middle.
  Qed.

  Lemma prev_post_R r A T : l = A ++ T -> prev_post r A [] ->
    exists s' ret, r = Ok s' ret /\ ret = db_valid s' /\
      R s' (cstep (cmp c) LP (At (length (lf None A))) MPrev).
  Proof.
    intros Hl (A1 & A2 & s' & ret & HA & -> & He & Hc & Hret).
    exists s', ret. split; [reflexivity|]. rewrite app_nil_r in Hret.
    destruct ret.
    - destruct Hret as (Hd & (Hlf & Hge & (y0 & Hy0 & Hyk)) & HA1).
      split; [unfold db_valid; rewrite Hd, He; reflexivity|].
      assert (HsA : esorted A).
      { pose proof Hsorted as Hs. rewrite Hl in Hs. apply (sorted_app_inv (icmp c)) in Hs. tauto. }
      assert (Hsplit : lf None A = lf None A1 ++ lf None A2).
      { rewrite HA. apply (lf_split_at c ok p seq A1 A2 (d_key s')); auto.
        rewrite HA in HsA. apply (sorted_app_inv (icmp c)) in HsA. tauto. }
      rewrite Hsplit, Hlf, app_length. cbn [length]. rewrite Nat.add_1_r. cbn [cstep].
      split; [exact He|]. rewrite Hd.
      exists A1, (A2 ++ T). split; [rewrite Hl, HA, app_assoc; reflexivity|]. split; [exact Hc|].
      split; [exact HA1|]. split.
      + intros y Hy Hvy. apply in_app_or in Hy as [Hy|Hy]; [apply Hge; assumption|].
        rewrite <- Hyk. apply (OrderProofs.not_lt_le c ok).
        apply (l_app_ukey (A1 ++ A2) T); [rewrite Hl, HA; reflexivity|apply in_or_app; right; exact Hy0|exact Hy].
      + split; [|reflexivity]. rewrite (live_app c ok), Hlf. cbn. eexists. reflexivity.
    - destruct Hret as (-> & Hd & Hlf).
      split; [unfold db_valid; rewrite Hd; destruct (d_err s'); reflexivity|].
      cbn in HA. subst A2. rewrite Hlf. cbn.
      split; [exact He|]. rewrite Hd. split; [reflexivity|exact Hc].
  Qed.

  Notation step_ok r sp' := (exists s' ret, r = Ok s' ret /\ ret = db_valid s' /\ R s' sp').

  Lemma R_child s sp : R s sp -> exists cp, child_at (d_child s) cp.
  Proof.
    intros [_ HR]. destruct (d_dir s).
    - destruct HR as [_ H]. eauto.
    - destruct HR as [_ H]. exact H.
    - destruct HR as (A & B & _ & H & _). eauto.
    - destruct HR as (A & e & B & _ & (_ & _ & _ & _ & H) & _). eauto.
  Qed.

  Lemma eoi_ok s0 cp : d_err s0 = false -> child_at (d_child s0) cp -> step_ok (Ok (set_dir C s0 DirEOI) false) EOI.
  Proof.
    intros He Hc. eexists _, false. split; [reflexivity|]. split; [unfold db_valid; cbn; rewrite He; reflexivity|].
    split; [exact He|]. cbn. split; [reflexivity|]. eauto.
  Qed.

  Lemma soi_ok s0 : d_err s0 = false -> child_at (d_child s0) SOI -> step_ok (Ok (set_dir C s0 DirSOI) false) SOI.
  Proof.
    intros He Hc. eexists _, false. split; [reflexivity|]. split; [unfold db_valid; cbn; rewrite He; reflexivity|].
    split; [exact He|]. cbn. split; [reflexivity|exact Hc].
  Qed.

  Lemma LP_nil : l = [] -> LP = [].
  Proof. intros H. unfold live_pairs. rewrite H. reflexivity. Qed.

  (* landing on the first entry with a fresh scan: First(), and Next() from SOI *)
  Lemma first_like ch' : child_at ch' (cfirst l) ->
    (chobs ch' = None /\ cfirst LP = EOI) \/
    (exists e0, chobs ch' = Some e0 /\ forall s1, d_child s1 = ch' -> d_err s1 = false -> d_dir s1 = DirSOI ->
       step_ok (next_loop fuel s1) (cfirst LP)).
  Proof.
    intros Hch. destruct (cons_cases l) as [El|(e0 & B' & El)].
    - left. assert (Hcf : cfirst l = EOI) by (rewrite El; reflexivity). rewrite Hcf in Hch.
      split; [apply (child_none _ _ Hch); right; reflexivity|].
      rewrite (LP_nil El). reflexivity.
    - right. exists e0. assert (Hcf : cfirst l = At (length (@nil entry))) by (rewrite El; reflexivity).
      assert (Hc0 : child_at ch' (At (length (@nil entry)))) by (rewrite Hcf in Hch; exact Hch).
      split; [apply (child_obs _ [] e0 B' El Hc0)|].
      intros s1 Hc1 He1 Hd1. rewrite <- Hc1 in Hc0.
      assert (Hg : gsk s1 = None) by (unfold gsk; rewrite Hd1; reflexivity).
      pose proof (next_loop_spec l [] s1 fuel eq_refl) as Hn. rewrite Hg in Hn.
      assert (Hpost : next_post (next_loop fuel s1) None [] l).
      { apply Hn; auto. - rewrite El. discriminate. - lia. - apply lower_ok_none. }
      destruct (next_post_R _ None [] l [] eq_refl Hpost eq_refl) as (s' & ret & Hr & Hret & HR).
      { intros e _ _ x []. }
      exists s', ret. split; [exact Hr|]. split; [exact Hret|].
      cbn [length] in HR. destruct LP; exact HR.
  Qed.

  Lemma step_first s sp : R s sp -> step_ok (db_first c p C chstep chobs seq strict fuel s) (cfirst LP).
  Proof.
    intros HR. destruct (R_child s sp HR) as [cp Hcp]. destruct HR as [Herr _].
    unfold db_first. rewrite Herr.
    pose proof (refines_from_step _ _ _ _ _ _ MFirst Hcp) as Hch. cbn [cstep] in Hch.
    destruct (first_like _ Hch) as [[Hn Hsp]|(e0 & Ho & Hstep)].
    - rewrite Hn, Hsp. cbn [is_some]. exact (eoi_ok (set_child C s _) _ Herr Hch).
    - rewrite Ho. cbn [is_some]. apply Hstep; auto.
  Qed.

  Lemma make_probe k : make_ikey p k seq (keyTypeSeek p) = MkOk (probe p k seq).
  Proof.
    unfold make_ikey. destruct dpok as (_ & Hsv & _).
    assert ((keyMaxSeq p <? seq)%N = false) as -> by (apply N.ltb_ge; exact Hseq).
    assert ((keyTypeVal p <? keyTypeSeek p)%N = false) as -> by (apply N.ltb_ge; exact Hsv).
    reflexivity.
  Qed.

  Lemma probe_lt e k : icmp c (fst e) (probe p k seq) = Lt -> vis e = true -> entry_wf p e -> cmp c (ukey e) k = Lt.
  Proof.
    unfold icmp, probe. cbn [uk num]. intros H Hv W.
    destruct (cmp c (ukey e) k) eqn:E; try congruence. exfalso.
    apply N.compare_lt_iff in H. unfold visible, ik_seq in Hv. apply N.leb_le in Hv.
    unfold entry_wf, ik_kind in W. unfold pack in H.
    destruct dpok as ((Hds & Hvs & _) & _ & Hdv).
    pose proof (N.div_mod (num (fst e)) 256 ltac:(discriminate)) as Hdm.
    assert (Hk : (num (fst e) mod 256 <= keyTypeSeek p)%N) by (destruct W as [-> | ->]; assumption).
    change (seq * 256 + keyTypeSeek p < num (fst e))%N in H. lia.
  Qed.

  Lemma probe_ge (e : entry) k : icmp c (fst e) (probe p k seq) <> Lt -> cmp c (ukey e) k <> Lt.
  Proof. unfold icmp, probe. cbn [uk num]. intros H E. rewrite E in H. congruence. Qed.

  Lemma step_seek s sp k : R s sp ->
    step_ok (db_seek c p C chstep chobs seq strict fuel s k) (find_ge (cmp c) k LP 0).
  Proof.
    intros HR. destruct (R_child s sp HR) as [cp Hcp]. destruct HR as [Herr _].
    unfold db_seek. rewrite Herr, make_probe.
    set (pr := probe p k seq).
    pose proof (refines_from_step _ _ _ _ _ _ (MSeek pr) Hcp) as Hch. cbn [cstep] in Hch.
    set (ch' := chstep (d_child s) (MSeek pr)) in *.
    destruct (find_ge (icmp c) pr l 0) as [|j|] eqn:Ef.
    - exfalso. eapply find_ge_not_soi; eauto.
    - (* landed on entry number j *)
      destruct (find_ge_at (icmp c) pr l j Ef) as (x & Hx & Hxge & Hlt).
      destruct (nth_error_split l j Hx) as (A & B' & Hl & HlenA). subst j.
      assert (HA : forall a, In a A -> icmp c (fst a) pr = Lt).
      { intros a Ha. apply In_nth_error in Ha as [m Hm].
        assert (m < length A) by (apply nth_error_Some; congruence).
        apply (Hlt m a); auto. rewrite Hl, nth_error_app1; auto. }
      assert (HB : forall b, In b (x :: B') -> icmp c (fst b) pr <> Lt).
      { intros b [<-|Hb]; [exact Hxge|]. intros Hb'. apply Hxge.
        eapply (icmp_trans c ok); [|exact Hb'].
        pose proof Hsorted as Hs. rewrite Hl in Hs. apply (sorted_app_inv (icmp c)) in Hs as (_ & Hs & _).
        apply (sorted_cons_inv (icmp c)) in Hs as [_ Hs]. rewrite Forall_forall in Hs. apply Hs. exact Hb. }
      assert (HAk : forall a, In a A -> vis a = true -> cmp c (ukey a) k = Lt).
      { intros a Ha Hva. apply probe_lt; auto. apply wf_in. rewrite Hl. apply in_or_app. left. exact Ha. }
      assert (HBk : forall b, In b (x :: B') -> cmp c (ukey b) k <> Lt).
      { intros b Hb. apply probe_ge. apply HB. exact Hb. }
      assert (HLP : LP = lf None A ++ lf None (x :: B')).
      { unfold live_pairs. rewrite Hl at 1. apply (lf_split c ok). intros a b Ha Hb Hva Hvb.
        eapply (OrderProofs.lt_le_trans c ok); [apply HAk; assumption|]. apply (OrderProofs.not_lt_le c ok). apply HBk. exact Hb. }
      rewrite (child_obs ch' A x B' Hl Hch). cbn [is_some].
      set (s1 := set_dir C (set_child C s ch') DirSOI).
      pose proof (next_loop_spec (x :: B') A s1 fuel Hl) as Hn.
      assert (Hpost : next_post (next_loop fuel s1) None A (x :: B')).
      { apply Hn; auto; try discriminate; try apply lower_ok_none;
          try (rewrite Hl, app_length in Hfuel; cbn in *; lia). }
      destruct (next_post_R _ None A (x :: B') (lf None A) Hl Hpost HLP) as (s' & ret & Hr & Hret & HR).
      { intros e He _ a Ha Hva. eapply (OrderProofs.lt_le_trans c ok); [apply HAk; assumption|]. apply (OrderProofs.not_lt_le c ok). apply HBk. exact He. }
      exists s', ret. split; [exact Hr|]. split; [exact Hret|].
      assert (Hspec : find_ge (cmp c) k LP 0 = if Nat.ltb (length (lf None A)) (length LP) then At (length (lf None A)) else EOI).
      { rewrite HLP at 1. rewrite (find_ge_app_lt (cmp c)).
        2:{ intros [u v] Hy. apply (live_in c p seq) in Hy as (a & Ha & Hva & _ & -> & _). cbn. apply HAk; assumption. }
        cbn [plus]. rewrite HLP, app_length.
        destruct (lf None (x :: B')) as [|[u v] rest] eqn:Elf.
        - cbn [find_ge length]. rewrite Nat.add_0_r, Nat.ltb_irrefl. reflexivity.
        - assert (Hy : In (u, v) (lf None (x :: B'))) by (rewrite Elf; left; reflexivity).
          apply (live_in c p seq) in Hy as (b & Hb & _ & _ & -> & _).
          rewrite (find_ge_head (cmp c)) by (cbn; apply HBk; exact Hb).
          assert (Nat.ltb (length (lf None A)) (length (lf None A) + length ((ukey b, v) :: rest)) = true) as ->
            by (apply Nat.ltb_lt; cbn; lia).
          reflexivity. }
      rewrite Hspec. exact HR.
    - (* every entry is before the probe *)
      pose proof (find_ge_eoi (icmp c) pr l Ef) as Hall.
      rewrite (child_none _ _ Hch (or_intror eq_refl)). cbn [is_some].
      assert (Hspec : find_ge (cmp c) k LP 0 = EOI).
      { apply (seek_char_eoi (cmp c)). intros [u v] Hy.
        apply (live_in c p seq) in Hy as (a & Ha & Hva & _ & -> & _). cbn.
        apply probe_lt; auto. apply wf_in. exact Ha. }
      rewrite Hspec. exact (eoi_ok (set_child C s _) _ Herr Hch).
  Qed.

  Lemma clast_as_prev : clast LP = cstep (cmp c) LP (At (length (lf None l))) MPrev.
  Proof. unfold clast, live_pairs. cbn [cstep]. destruct (length (lf None l)); reflexivity. Qed.

  Lemma step_last s sp : R s sp -> step_ok (db_last c p C chstep chobs seq strict fuel s) (clast LP).
  Proof.
    intros HR. destruct (R_child s sp HR) as [cp Hcp]. destruct HR as [Herr _].
    unfold db_last. rewrite Herr.
    pose proof (refines_from_step _ _ _ _ _ _ MLast Hcp) as Hch. cbn [cstep] in Hch.
    destruct (cons_cases l) as [El|(e0 & B' & El)].
    - assert (Hcl : clast l = SOI) by (rewrite El; reflexivity). rewrite Hcl in Hch.
      rewrite (child_none _ _ Hch (or_introl eq_refl)), (LP_nil El). cbn [is_some].
      exact (soi_ok (set_child C s _) Herr Hch).
    - assert (Hcl : clast l = pos_end l).
      { rewrite El. unfold clast, pos_end. cbn. rewrite Nat.sub_0_r. reflexivity. }
      rewrite Hcl in Hch.
      destruct (ListLemmas.list_snoc_cases l) as [E|(A0 & x & E)]; [congruence|].
      assert (Hobs : chobs (chstep (d_child s) MLast) = Some x).
      { apply (child_obs _ A0 x []); [exact E|].
        assert (Hpe : pos_end l = At (length A0)) by (rewrite E; apply pos_end_snoc). rewrite Hpe in Hch. exact Hch. }
      rewrite Hobs. cbn [is_some].
      rewrite clast_as_prev.
      apply (prev_post_R _ l []); [rewrite app_nil_r; reflexivity|].
      apply (prev_spec l []); auto; [rewrite app_nil_r; reflexivity|lia].
  Qed.

  Lemma bwd_next_aux e1 B' k v rest : esorted (e1 :: B') ->
    (forall y, In y (e1 :: B') -> vis y = true -> cmp c (ukey y) k <> Lt) ->
    lf None (e1 :: B') = (k, v) :: rest -> lf (Some k) B' = rest.
  Proof.
    intros Hs Hge H. pose proof (sorted_cons_inv (icmp c) e1 B' Hs) as [Hs' _].
    assert (Hlow : lower_ok c seq (Some k) B').
    { intros k' Hk y Hy Hvy. injection Hk as <-. apply Hge; [right; exact Hy|exact Hvy]. }
    cbn [live_from same_ukey] in H. destruct (vis e1) eqn:Ev.
    - destruct (isval e1) eqn:Evl.
      + injection H as <- _ <-. reflexivity.
      + exfalso. assert (Hin : In (k, v) (lf (Some (ukey e1)) B')) by (rewrite H; left; reflexivity).
        apply (live_keys_gt c ok p seq B' (ukey e1) Hs') in Hin; [|apply (lower_ok_sorted c ok); exact Hs].
        apply (Hge e1 (or_introl eq_refl) Ev). exact Hin.
    - destruct (live_prefix c ok p seq (Some k) B') as (pre & Hpre & Hlen). rewrite H in Hpre.
      destruct pre as [|q pre].
      + exfalso. cbn in Hpre. assert (Hin : In (k, v) (lf (Some k) B')) by (rewrite <- Hpre; left; reflexivity).
        apply (live_keys_gt c ok p seq B' k Hs' Hlow) in Hin. rewrite (cmp_refl c ok) in Hin. discriminate.
      + destruct pre; [|cbn in Hlen; lia]. cbn in Hpre. injection Hpre as _ <-. reflexivity.
  Qed.

  (* the forward loop entered after the entry e1 that carries the current pair (k, v) *)
  Lemma next_from A e1 e2 B s1 k v :
    l = (A ++ [e1]) ++ e2 :: B -> child_at (d_child s1) (At (length (A ++ [e1]))) -> d_err s1 = false ->
    gsk s1 = Some k -> lower_ok c seq (Some k) (e2 :: B) ->
    LP = (lf None A ++ [(k, v)]) ++ lf (Some k) (e2 :: B) ->
    (forall e, In e (e2 :: B) -> go_emit (Some k) (ukey e) = true ->
       forall x, In x (A ++ [e1]) -> vis x = true -> cmp c (ukey x) (ukey e) = Lt) ->
    step_ok (next_loop fuel s1) (cstep (cmp c) LP (At (length (lf None A))) MNext).
  Proof.
    intros Hl' Hch Herr Hg Hlow HLP' Hhead.
    pose proof (next_loop_spec (e2 :: B) (A ++ [e1]) s1 fuel Hl') as Hn1. rewrite Hg in Hn1.
    assert (Hpost : next_post (next_loop fuel s1) (Some k) (A ++ [e1]) (e2 :: B)).
    { apply Hn1; auto; try discriminate. rewrite Hl', !app_length in Hfuel. cbn [length] in *. lia. }
    destruct (next_post_R _ _ _ _ _ Hl' Hpost HLP' Hhead) as (s' & ret & Hr & Hret & HRs).
    exists s', ret. split; [exact Hr|]. split; [exact Hret|].
    rewrite app_length in HRs. cbn [length] in HRs. rewrite Nat.add_1_r in HRs.
    cbn -[Nat.ltb]. exact HRs.
  Qed.

  Lemma step_next s sp : R s sp -> step_ok (db_next c p C chstep chobs seq strict fuel s) (cstep (cmp c) LP sp MNext).
  Proof.
    intros HR. pose proof HR as [Herr HR']. unfold db_next.
    destruct (d_dir s) eqn:Ed.
    - destruct HR' as [-> Hch]. rewrite Herr.
      pose proof (refines_from_step _ _ _ _ _ _ MNext Hch) as Hch'. cbn [cstep] in Hch'.
      destruct (first_like _ Hch') as [[Hn Hsp]|(e0 & Ho & Hstep)].
      + rewrite Hn. cbn [is_some negb cstep]. rewrite Hsp. exact (eoi_ok (set_child C s _) _ Herr Hch').
      + rewrite Ho. cbn [is_some negb]. apply Hstep; auto.
    - destruct HR' as [-> Hch]. exists s, false. split; [reflexivity|].
      split; [unfold db_valid; rewrite Ed, Herr; reflexivity|]. exact HR.
    - destruct HR' as (A & B & Hl & Hch & HA & HB & (rest & Hrest) & ->). rewrite Herr.
      destruct B as [|e1 B']; [discriminate|].
      pose proof (LP_bwd A (e1 :: B') (d_key s) Hl HA HB) as HLP. rewrite Hrest in HLP.
      assert (Hch1 : child_at (chstep (d_child s) MNext) (At (length A))).
      { replace (At (length A)) with (cstep (icmp c) l (pos_end A) MNext) by apply (cstep_next_pos_end (icmp c) l A e1 B' Hl).
        exact (refines_from_step _ _ _ _ _ _ MNext Hch). }
      rewrite (child_obs _ A e1 B' Hl Hch1). cbn [is_some negb].
      assert (Hs1 : esorted (e1 :: B')).
      { pose proof Hsorted as Hs. rewrite Hl in Hs. apply (sorted_app_inv (icmp c)) in Hs. tauto. }
      assert (Hrest' : lf (Some (d_key s)) B' = rest) by (eapply bwd_next_aux; eauto).
      destruct B' as [|e2 B''].
      + (* e1 is the last entry *)
        pose proof (child_next_none _ A e1 Hl Hch1) as Hn.
        rewrite (child_none _ _ Hn (or_intror eq_refl)). cbn [is_some negb].
        cbn in Hrest'. subst rest.
        rewrite cstep_next_ge by (rewrite HLP, app_length; cbn; lia). exact (eoi_ok (set_child C s _) _ Herr Hn).
      + pose proof (child_next_some _ A e1 e2 B'' Hl Hch1) as Hn.
        assert (Hl' : l = (A ++ [e1]) ++ e2 :: B'') by (rewrite app_snoc_cons; exact Hl).
        rewrite (child_obs _ _ e2 B'' Hl' Hn). cbn [is_some negb].
        (* an entry of B carrying the current key *)
        assert (Hyk : exists y, In y (e1 :: e2 :: B'') /\ ukey y = d_key s).
        { assert (Hin : In (d_key s, d_value s) (lf None (e1 :: e2 :: B''))) by (rewrite Hrest; left; reflexivity).
          apply (live_in c p seq) in Hin as (y & Hy & _ & _ & Hk & _). eauto. }
        destruct Hyk as (y & Hy & Hyk).
        apply (next_from A e1 e2 B'' _ (d_key s) (d_value s) Hl'); auto.
        * unfold gsk. cbn. rewrite Ed. reflexivity.
        * intros k' Hk y' Hy' Hvy. injection Hk as <-. apply HB; [right; exact Hy'|exact Hvy].
        * rewrite HLP, Hrest', <- app_assoc. reflexivity.
        * intros e He Hem x Hx Hvx. apply go_emit_gt in Hem.
          eapply (OrderProofs.le_lt_trans c ok); [|exact Hem]. rewrite <- Hyk.
          apply in_app_or in Hx as [Hx|[<-|[]]].
          -- apply (l_app_ukey A (e1 :: e2 :: B'') Hl); assumption.
          -- destruct Hy as [<-|Hy]; [apply (OrderProofs.le_refl c ok)|].
             apply (esorted_cons_ukey c e1 (e2 :: B'') Hs1). exact Hy.
    - destruct HR' as (A & e & B & Hl & (_ & Hk & Hv & _ & Hch) & Hve & Hvl & Hhead & ->). rewrite Herr.
      pose proof (LP_fwd A e B Hl Hve Hvl Hhead) as HLP.
      destruct B as [|e1 B'].
      + pose proof (child_next_none _ A e Hl Hch) as Hn.
        rewrite (child_none _ _ Hn (or_intror eq_refl)). cbn [is_some negb].
        rewrite cstep_next_ge by (rewrite HLP, app_length; cbn; lia). exact (eoi_ok (set_child C s _) _ Herr Hn).
      + pose proof (child_next_some _ A e e1 B' Hl Hch) as Hn.
        assert (Hl' : l = (A ++ [e]) ++ e1 :: B') by (rewrite app_snoc_cons; exact Hl).
        rewrite (child_obs _ _ e1 B' Hl' Hn). cbn [is_some negb].
        apply (next_from A e e1 B' _ (ukey e) (snd e) Hl'); auto.
        * unfold gsk. cbn. rewrite Ed, Hk. reflexivity.
        * apply (lower_ok_sorted c ok). pose proof Hsorted as Hs. rewrite Hl in Hs.
          apply (sorted_app_inv (icmp c)) in Hs. tauto.
        * rewrite HLP, <- app_assoc. reflexivity.
        * intros e' He' Hem x Hx Hvx. apply go_emit_gt in Hem.
          apply in_app_or in Hx as [Hx|[<-|[]]]; [|exact Hem].
          eapply (cmp_trans c ok); [apply Hhead; assumption|exact Hem].
  Qed.

  Lemma step_prev s sp : R s sp -> step_ok (db_prev c p C chstep chobs seq strict fuel s) (cstep (cmp c) LP sp MPrev).
  Proof.
    intros HR. pose proof HR as [Herr HR']. unfold db_prev.
    destruct (d_dir s) eqn:Ed.
    - destruct HR' as [-> Hch]. exists s, false. split; [reflexivity|].
      split; [unfold db_valid; rewrite Ed, Herr; reflexivity|]. exact HR.
    - destruct HR' as [-> Hch]. rewrite Herr. cbn [cstep]. apply (step_last s EOI HR).
    - destruct HR' as (A & B & Hl & Hch & HA & HB & Hrest & ->). rewrite Herr.
      apply (prev_post_R _ A B Hl). apply (prev_spec A B); auto.
      rewrite Hl, app_length in Hfuel. lia.
    - (* Forward: rewind to the previous user key, then prev() *)
      destruct HR' as (A & e & B & Hl & (_ & Hk & Hv & _ & Hch) & Hve & Hvl & Hhead & ->). rewrite Herr.
      destruct (rewind_spec A (e :: B) s fuel Hl Hch) as (A1 & A2 & ch' & HA & HA2 & Hc' & Hcase).
      { rewrite Hl, app_length in Hfuel. lia. }
      assert (Hinv : forall x, In x A2 -> vis x = false).
      { intros x Hx. destruct (vis x) eqn:Evx; [exfalso|reflexivity].
        apply (HA2 x Hx). rewrite Hk. apply Hhead; [rewrite HA; apply in_or_app; right; exact Hx|exact Evx]. }
      assert (HlfA : lf None A = lf None A1).
      { rewrite HA, (live_app c ok), (live_invisible c p seq _ A2 Hinv), app_nil_r. reflexivity. }
      rewrite HlfA.
      destruct Hcase as [[-> Hrw]|(A10 & x & f' & HA1 & Hlt & Hf' & Hrw)]; rewrite Hrw.
      + exact (soi_ok (set_child C s _) Herr Hc').
      + assert (Hl1 : l = A1 ++ (A2 ++ e :: B)) by (rewrite Hl, HA, <- app_assoc; reflexivity).
        apply (prev_post_R _ A1 (A2 ++ e :: B) Hl1).
        apply (prev_spec A1 (A2 ++ e :: B)); auto.
  Qed.

  Theorem dbiter_sim s sp m : R s sp ->
    exists s' ret, db_step fuel s m = Ok s' ret /\ R s' (cstep (cmp c) LP sp m) /\
                   (ret, db_kv s') = out_of (cobs LP (cstep (cmp c) LP sp m)).
  Proof.
    intros HR.
    assert (H : step_ok (db_step fuel s m) (cstep (cmp c) LP sp m)).
    { destruct m; cbn [DBIter.db_step cstep].
      - apply (step_first s sp HR).
      - apply (step_last s sp HR).
      - apply (step_seek s sp k HR).
      - apply (step_next s sp HR).
      - apply (step_prev s sp HR). }
    destruct H as (s' & ret & Hr & Hret & HR'). exists s', ret. split; [exact Hr|]. split; [exact HR'|].
    destruct (R_obs s' _ HR') as [Hkv Hval]. unfold out_of. rewrite Hret, Hkv, Hval. reflexivity.
  Qed.

  Lemma dbiter_run_from s sp ms : R s sp ->
    db_run c p C chstep chobs seq strict fuel s ms = Some (run_from (cmp c) LP sp ms).
  Proof.
    revert s sp. induction ms as [|m ms IH]; intros s sp HR; cbn [db_run run_from]; [reflexivity|].
    destruct (dbiter_sim s sp m HR) as (s' & ret & Hr & HR' & Hout).
    fold (db_step fuel s m). rewrite Hr, (IH s' _ HR'), Hout. reflexivity.
  Qed.

  Lemma R_init ch0 : refines (icmp c) chstep chobs ch0 l -> R (db_init ch0) SOI.
  Proof. intros H. split; [reflexivity|]. cbn. split; [reflexivity|exact H]. Qed.
End DBIterProofs.

(* dbIter over ANY raw iterator that behaves like a cursor over the strictly sorted, well-formed
   internal entries l shows — for every finite sequence of First/Last/Seek/Next/Prev — exactly what
   the reference cursor over live_pairs l seq shows; no fuel exhaustion, no panic. *)
Theorem dbiter_refines (c : comparer) (p : kparams) (C : Type) (chstep : C -> move ikey -> C)
  (chobs : C -> option entry) (seq : N) (strict : bool) (l : list entry) (fuel : nat) (ch0 : C) :
  comparer_ok c -> dbparams_ok p -> (seq <= keyMaxSeq p)%N ->
  sorted_kv (icmp c) l -> Forall (entry_wf p) l -> length l < fuel ->
  refines (icmp c) chstep chobs ch0 l ->
  forall ms, db_run c p C chstep chobs seq strict fuel (db_init ch0) ms =
             Some (run_cursor (cmp c) (live_pairs c p seq l) ms).
Proof.
  intros ok dpok Hseq Hs Hwf Hf Href ms.
  apply (dbiter_run_from c ok p dpok C chstep chobs seq Hseq strict l Hs Hwf fuel Hf).
  apply R_init. exact Href.
Qed.
