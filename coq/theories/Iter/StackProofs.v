(* Iter/StackProofs.v — the DB iterator stack: dbIter over the merged iterator over black-box
   children (memdb / table iterators), and the range conversion of newIterator. *)
From GL Require Import Iter.CursorProofs Iter.Merged Iter.MergedProofs Iter.DBIter Iter.LiveProofs
  Iter.DBIterProofs.
From Coq Require Import Lia.
Close Scope N_scope.

Section Slice.
  Variable c : comparer.
  Hypothesis ok : comparer_ok c.
  Variable p : kparams.
  Hypothesis dpok : dbparams_ok p.
  Variable s : N.

  Notation ukey e := (uk (fst e)).
  Notation lf := (live_from c p s).
  Notation esorted := (sorted_kv (icmp c)).

  (* filtering whole user keys commutes with the scan *)
  Lemma live_filter_ukey (P : bytes -> bool) l : forall sk, esorted l -> lower_ok c s sk l ->
    lf sk (filter (fun e => P (ukey e)) l) = filter (fun kv => P (fst kv)) (lf sk l).
  Proof.
    induction l as [|e l IH]; intros sk Hs Hl; cbn [filter live_from]; [reflexivity|].
    pose proof (sorted_cons_inv (icmp c) e l Hs) as [Hs' _].
    assert (Hl' : lower_ok c s sk l) by (eapply lower_ok_tail; eauto).
    assert (Hle : lower_ok c s (Some (ukey e)) l) by (apply (lower_ok_sorted c ok); exact Hs).
    destruct (P (ukey e)) eqn:EP.
    - cbn [live_from]. destruct (visible s e) eqn:Ev; [|apply IH; auto].
      destruct (same_ukey c sk (ukey e)); [apply IH; auto|].
      destruct (is_val p e); cbn [filter fst]; [rewrite EP; f_equal|]; apply IH; auto.
    - destruct (visible s e) eqn:Ev; [|apply IH; auto].
      destruct (same_ukey c sk (ukey e)) eqn:Es; [apply IH; auto|].
      assert (Hgoal : lf sk (filter (fun e0 => P (ukey e0)) l) = filter (fun kv => P (fst kv)) (lf (Some (ukey e)) l)).
      { rewrite <- (IH (Some (ukey e)) Hs' Hle). eapply live_indep.
        intros x Hx Hvx. apply filter_In in Hx as [Hx HPx].
        transitivity false; [|symmetry].
        - apply (same_ukey_false c ok). intros E. subst sk.
          apply (same_ukey_false c ok) in Es.
          (* ukey x = k <= ukey e <= ukey x, so ukey e = k: contradiction with Es *)
          apply Es. f_equal.
          apply (f_le_antisym (cmp c) (cmp_ord_ok c ok)).
          + apply (f_not_lt_le (cmp c) (cmp_ord_ok c ok)).
            apply (Hl (ukey x) eq_refl e (or_introl eq_refl) Ev).
          + apply (esorted_cons_ukey c e l Hs x Hx).
        - apply (same_ukey_false c ok). intros E. injection E as E. rewrite <- E in HPx. congruence. }
      destruct (is_val p e); cbn [filter fst]; [rewrite EP|]; exact Hgoal.
  Qed.

  Lemma probe_ok k : range_probe p k = MkOk (probe p k (keyMaxSeq p)).
  Proof. exact (make_probe p dpok (keyMaxSeq p) (N.le_refl _) k). Qed.

  (* an entry lies in the internal slice iff its user key lies in the user range *)
  Lemma in_islice_range (e : entry) start limit a b :
    (num (fst e) <= keyMaxNum p)%N -> opt_probe p start = Some a -> opt_probe p limit = Some b ->
    in_islice c a b e = in_range c start limit (ukey e).
  Proof.
    intros Hb Ha Hbd. destruct dpok as ((_ & _ & _ & _ & _ & Hmax) & _).
    assert (Hcmp : forall k, icmp c (fst e) (probe p k (keyMaxSeq p)) =
                             match cmp c (ukey e) k with Eq => if (num (fst e) =? keyMaxNum p)%N then Eq else Gt | r => r end).
    { intros k. unfold icmp, probe. cbn [uk num]. destruct (cmp c (ukey e) k); auto.
      unfold pack. rewrite <- Hmax. destruct (N.eqb_spec (num (fst e)) (keyMaxNum p)) as [E|E].
      - rewrite E. apply N.compare_refl.
      - apply N.compare_gt_iff. lia. }
    unfold in_islice, in_range, opt_probe in *. f_equal.
    - destruct start as [k|]; [|injection Ha as <-; reflexivity].
      rewrite probe_ok in Ha. injection Ha as <-. rewrite Hcmp.
      destruct (cmp c (ukey e) k); auto. destruct (num (fst e) =? keyMaxNum p)%N; reflexivity.
    - destruct limit as [k|]; [|injection Hbd as <-; reflexivity].
      rewrite probe_ok in Hbd. injection Hbd as <-. rewrite Hcmp.
      destruct (cmp c (ukey e) k); auto. destruct (num (fst e) =? keyMaxNum p)%N; reflexivity.
  Qed.

  Theorem live_pairs_slice l start limit a b :
    esorted l -> Forall (fun e : entry => (num (fst e) <= keyMaxNum p)%N) l ->
    opt_probe p start = Some a -> opt_probe p limit = Some b ->
    live_pairs c p s (slice_entries c a b l) =
    filter (fun kv => in_range c start limit (fst kv)) (live_pairs c p s l).
  Proof.
    intros Hs Hb Ha Hbd. unfold live_pairs, slice_entries.
    rewrite <- (live_filter_ukey (in_range c start limit) l None Hs (lower_ok_none c s l)).
    f_equal. apply filter_ext_in. intros e He. rewrite Forall_forall in Hb.
    apply in_islice_range; auto.
  Qed.
End Slice.

Theorem db_iterator_correct (c : comparer) (p : kparams) (C : Type)
  (chstep : C -> move ikey -> C) (chobs : C -> option entry)
  (pop : list (option ikey) -> bool -> list nat -> option (nat * list nat))
  (seq : N) (strict : bool) (ls : list (list entry)) (its : list C) (fuel : nat) :
  comparer_ok c -> dbparams_ok p -> (seq <= keyMaxSeq p)%N -> pop_ok ikey (icmp c) pop ->
  Forall (sorted_kv (icmp c)) ls -> NoDup (map fst (concat ls)) -> Forall (Forall (entry_wf p)) ls ->
  Forall2 (fun ch l => refines (icmp c) chstep chobs ch l) its ls ->
  length (concat ls) < fuel ->
  forall ms, db_run c p _ (merged_step ikey bytes C chstep chobs pop) (m_kv ikey bytes C chobs) seq strict fuel
               (db_init (m_init its)) ms =
             Some (run_cursor (cmp c) (live_pairs c p seq (merge_lists (icmp c) ls)) ms).
Proof.
  intros ok dpok Hseq Hpop Hs Hnd Hwf Href Hfuel ms.
  apply dbiter_refines; [exact ok|exact dpok|exact Hseq| | | |].
  - apply (merge_sorted ikey bytes (icmp c) (icmp_ord_ok c ok)). exact Hnd.
  - rewrite Forall_forall. intros e He. apply (merge_in ikey bytes (icmp c)) in He as (j & l & Hj & Hin).
    rewrite Forall_forall in Hwf. specialize (Hwf l (nth_error_In _ _ Hj)). rewrite Forall_forall in Hwf. auto.
  - pose proof (merge_length (icmp c) ls) as Hml. unfold entry in *. lia.
  - apply merged_is_cursor; auto. apply (icmp_ord_ok c ok).
Qed.
