(* Mem/MemSpecProofs.v — facts about the reference (Mem/MemSpec.v): how insert, remove and each
   question act on a strictly sorted map cut into the entries below a key and the rest, and what the
   first / last visible entry of a slice is on such a cut. *)
From GL Require Import Base.OrderProofs Mem.MemSpec Mem.ListLemmas.
From GL Require Mem.ListLemmas.
Open Scope N_scope.

Section SpecProofs.
  Variable c : comparer.
  Hypothesis cok : comparer_ok c.

  Definition e_lt (k : bytes) (e : bytes * bytes) : Prop := lt c (fst e) k.       (* entry below k *)
  Definition e_ge (k : bytes) (e : bytes * bytes) : Prop := cmp c (fst e) k <> Lt.
  Definition e_gt (k : bytes) (e : bytes * bytes) : Prop := lt c k (fst e).

  Definition smap_sorted (m : smap) : Prop := sorted (fun a b => lt c (fst a) (fst b)) m.

  Lemma s_insert_new lo hi k v :
    Forall (e_lt k) lo -> Forall (e_gt k) hi -> s_insert c k v (lo ++ hi) = lo ++ (k, v) :: hi.
  Proof.
    intros Hlo Hhi. induction Hlo as [|(k', v') lo Hk _ IH]; cbn [app].
    - destruct hi as [|(k', v') hi]; [reflexivity|]. cbn.
      inversion Hhi; subst. unfold e_gt, lt in H1. cbn in H1. now rewrite H1.
    - cbn. unfold e_lt, lt in Hk. cbn in Hk. apply (cmp_lt_gt c cok) in Hk. rewrite Hk, IH. reflexivity.
  Qed.

  Lemma s_insert_over lo k0 v0 hi k v :
    Forall (e_lt k) lo -> cmp c k k0 = Eq ->
    s_insert c k v (lo ++ (k0, v0) :: hi) = lo ++ (k, v) :: hi.
  Proof.
    intros Hlo E. induction Hlo as [|(k', v') lo Hk _ IH]; cbn [app].
    - cbn. now rewrite E.
    - cbn. unfold e_lt, lt in Hk. cbn in Hk. apply (cmp_lt_gt c cok) in Hk. rewrite Hk, IH. reflexivity.
  Qed.

  Lemma key_eq_lt k e : e_lt k e -> key_eq c k e = false.
  Proof. unfold e_lt, lt, key_eq. intros ->. reflexivity. Qed.

  Lemma key_eq_gt k e : e_gt k e -> key_eq c k e = false.
  Proof.
    unfold e_gt, key_eq. intros H. apply (cmp_lt_gt c cok) in H. rewrite H. reflexivity.
  Qed.

  Lemma s_get_skip lo hi k : Forall (e_lt k) lo -> s_get c k (lo ++ hi) = s_get c k hi.
  Proof.
    intros H. unfold s_get. rewrite find_app_none; [reflexivity|].
    eapply Forall_impl; [|exact H]. apply key_eq_lt.
  Qed.

  Lemma s_get_hit k0 v0 hi k : cmp c k0 k = Eq -> s_get c k ((k0, v0) :: hi) = Some v0.
  Proof. intros E. unfold s_get. cbn. unfold key_eq. cbn. rewrite E. reflexivity. Qed.

  Lemma s_get_hit_e e hi k : cmp c (fst e) k = Eq -> s_get c k (e :: hi) = Some (snd e).
  Proof. destruct e as (k0, v0). apply s_get_hit. Qed.

  Lemma s_get_miss hi k : Forall (e_gt k) hi -> s_get c k hi = None.
  Proof.
    intros H. unfold s_get. rewrite find_none_intro; [reflexivity|]. apply Forall_forall.
    eapply Forall_impl; [|exact H]. apply key_eq_gt.
  Qed.

  Lemma s_find_ge_split lo hi k :
    Forall (e_lt k) lo -> Forall (e_ge k) hi -> s_find_ge c k (lo ++ hi) = hd_error hi.
  Proof.
    intros Hlo Hhi. unfold s_find_ge. rewrite find_app_none.
    - destruct hi as [|e hi]; [reflexivity|]. inversion Hhi; subst. cbn.
      unfold key_ge, ltb. unfold e_ge in H1. destruct (cmp c (fst e) k); try congruence; reflexivity.
    - eapply Forall_impl; [|exact Hlo]. intros e He. unfold key_ge, ltb. unfold e_lt, lt in He.
      now rewrite He.
  Qed.

  Lemma s_remove_split lo k0 v0 hi k :
    Forall (e_lt k) lo -> cmp c k0 k = Eq -> Forall (e_gt k) hi ->
    s_remove c k (lo ++ (k0, v0) :: hi) = lo ++ hi.
  Proof.
    intros Hlo E Hhi. unfold s_remove. rewrite filter_app. cbn [filter].
    unfold key_eq at 2. cbn [fst]. rewrite E. cbn [is_eq negb].
    rewrite !ListLemmas.filter_all; [reflexivity| |].
    - apply Forall_forall. eapply Forall_impl; [|exact Hhi]. intros e He. now rewrite key_eq_gt.
    - apply Forall_forall. eapply Forall_impl; [|exact Hlo]. intros e He. now rewrite key_eq_lt.
  Qed.

  Lemma find_last_app_none {A} (f : A -> bool) l1 l2 :
    Forall (fun x => f x = false) l2 -> find_last f (l1 ++ l2) = find_last f l1.
  Proof.
    intros H. induction l1 as [|x l1 IH]; cbn [app find_last].
    - induction H as [|y l2 Hy _ IH2]; cbn; [reflexivity|]. now rewrite IH2, Hy.
    - now rewrite IH.
  Qed.

  Lemma find_last_all {A} (f : A -> bool) l :
    Forall (fun x => f x = true) l -> find_last f l = find_last (fun _ => true) l.
  Proof.
    induction 1 as [|x l Hx _ IH]; cbn; [reflexivity|]. now rewrite IH, Hx.
  Qed.

  Lemma find_last_snoc {A} (f : A -> bool) l x :
    find_last f (l ++ [x]) = if f x then Some x else find_last f l.
  Proof.
    induction l as [|y l IH]; cbn [app find_last].
    - destruct (f x); reflexivity.
    - rewrite IH. destruct (f x); reflexivity.
  Qed.

  Lemma find_last_true_snoc {A} (l : list A) x : find_last (fun _ => true) (l ++ [x]) = Some x.
  Proof. apply (find_last_snoc (fun _ => true)). Qed.

  Lemma s_find_lt_split lo hi k :
    Forall (e_lt k) lo -> Forall (e_ge k) hi ->
    s_find_lt c k (lo ++ hi) = find_last (fun _ => true) lo.
  Proof.
    intros Hlo Hhi. unfold s_find_lt. rewrite find_last_app_none.
    - apply find_last_all. eapply Forall_impl; [|exact Hlo]. intros e He.
      unfold key_lt, ltb. unfold e_lt, lt in He. now rewrite He.
    - eapply Forall_impl; [|exact Hhi]. intros e He. unfold key_lt, ltb. unfold e_ge in He.
      destruct (cmp c (fst e) k); try congruence; reflexivity.
  Qed.

  Lemma s_len_map {A} (f : A -> bytes * bytes) l : s_len (map f l) = Z.of_nat (length l).
  Proof. unfold s_len. now rewrite map_length. Qed.

  Definition start_ok (sl : option range) (k : bytes) : bool :=
    match sl with Some (Some s, _) => negb (ltb c k s) | _ => true end.
  Definition lim_ok (sl : option range) (k : bytes) : bool :=
    match sl with Some (_, Some l) => ltb c k l | _ => true end.

  Lemma in_range_split sl k : in_range c sl k = start_ok sl k && lim_ok sl k.
  Proof. destruct sl as [(s, l)|]; cbn; [|reflexivity]. destruct s, l; reflexivity. Qed.

  Lemma hd_error_filter {A} (f : A -> bool) l : hd_error (filter f l) = find f l.
  Proof. induction l as [|x l IH]; cbn; [reflexivity|]. destruct (f x); cbn; auto. Qed.

  Lemma find_filter {A} (f g : A -> bool) l : find g (filter f l) = find (fun x => f x && g x) l.
  Proof.
    induction l as [|x l IH]; cbn; [reflexivity|]. destruct (f x); cbn; [|exact IH].
    destruct (g x); auto.
  Qed.

  Lemma find_last_filter {A} (f g : A -> bool) l :
    find_last g (filter f l) = find_last (fun x => f x && g x) l.
  Proof.
    induction l as [|x l IH]; cbn; [reflexivity|]. destruct (f x); cbn; rewrite <- IH; [reflexivity|].
    destruct (find_last g (filter f l)); reflexivity.
  Qed.

  Lemma find_last_none {A} (f : A -> bool) l : Forall (fun x => f x = false) l -> find_last f l = None.
  Proof. induction 1 as [|x l Hx _ IH]; cbn; [reflexivity|]. now rewrite IH, Hx. Qed.

  Lemma lim_ok_mono sl a b : lt c a b -> lim_ok sl b = true -> lim_ok sl a = true.
  Proof.
    destruct sl as [(s, [l|])|]; cbn; auto. unfold ltb. intros Hab Hb.
    destruct (cmp c b l) eqn:E; try discriminate.
    pose proof (OrderProofs.lt_trans c cok _ _ _ Hab E) as H. unfold lt in H. now rewrite H.
  Qed.

  Lemma start_ok_mono sl a b : lt c a b -> start_ok sl a = true -> start_ok sl b = true.
  Proof.
    destruct sl as [([s|], l)|]; cbn; auto. unfold ltb. intros Hab Ha.
    destruct (cmp c b s) eqn:E; auto.
    pose proof (OrderProofs.lt_trans c cok _ _ _ Hab E) as H. unfold lt in H. rewrite H in Ha. discriminate.
  Qed.

  (* forward query: the answer is the first entry of the high part, if it is below the limit *)
  Lemma fwd_query sl (f : bytes * bytes -> bool) lo hi :
    smap_sorted (lo ++ hi) ->
    Forall (fun e => in_range c sl (fst e) && f e = false) lo ->
    Forall (fun e => f e = true /\ start_ok sl (fst e) = true) hi ->
    find f (vis c sl (lo ++ hi)) =
      match hi with [] => None | e :: _ => if lim_ok sl (fst e) then Some e else None end.
  Proof.
    intros HS Hlo Hhi. unfold vis. rewrite find_filter. rewrite find_app_none by exact Hlo.
    destruct hi as [|e hi]; [reflexivity|].
    apply sorted_app in HS as (_ & HS & _). destruct HS as (He & _).
    inversion Hhi as [|? ? (Hf & Hs) Hhi']; subst.
    cbn [find]. rewrite in_range_split, Hf, Hs. cbn [andb].
    destruct (lim_ok sl (fst e)) eqn:El; cbn [andb]; [reflexivity|].
    apply find_none_intro. intros e' He'.
    rewrite in_range_split.
    destruct (lim_ok sl (fst e')) eqn:El'; [|now rewrite andb_false_r].
    rewrite Forall_forall in He. rewrite (lim_ok_mono sl _ _ (He e' He') El') in El. discriminate.
  Qed.

  Lemma bwd_query_nil sl (f : bytes * bytes -> bool) hi :
    Forall (fun e => in_range c sl (fst e) && f e = false) hi ->
    find_last f (vis c sl hi) = None.
  Proof. intros H. unfold vis. rewrite find_last_filter. now apply find_last_none. Qed.

  (* backward query: the answer is the last entry of the low part, if it is not below the start *)
  Lemma bwd_query sl (f : bytes * bytes -> bool) lo e hi :
    smap_sorted ((lo ++ [e]) ++ hi) ->
    Forall (fun e => in_range c sl (fst e) && f e = false) hi ->
    Forall (fun e => f e = true /\ lim_ok sl (fst e) = true) (lo ++ [e]) ->
    find_last f (vis c sl ((lo ++ [e]) ++ hi)) = if start_ok sl (fst e) then Some e else None.
  Proof.
    intros HS Hhi Hlo. unfold vis. rewrite find_last_filter. rewrite find_last_app_none by exact Hhi.
    rewrite find_last_snoc.
    apply Forall_app in Hlo as (Hlo & He). inversion He as [|? ? (Hf & Hl) _]; subst.
    rewrite in_range_split, Hf, Hl, andb_true_r. cbn [andb].
    destruct (start_ok sl (fst e)) eqn:Es; [reflexivity|].
    apply find_last_none. apply Forall_forall. intros e' He'.
    rewrite in_range_split.
    destruct (start_ok sl (fst e')) eqn:Es'; [|reflexivity].
    apply sorted_app in HS as (HS & _). apply sorted_app in HS as (_ & _ & HS).
    rewrite Forall_forall in HS. specialize (HS e' He'). inversion HS; subst.
    rewrite (start_ok_mono sl _ _ H1 Es') in Es. discriminate.
  Qed.

  Lemma find_true_hd {A} (l : list A) : find (fun _ => true) l = hd_error l.
  Proof. destruct l; reflexivity. Qed.
End SpecProofs.
