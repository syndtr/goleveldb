(* Mem/MemDBProofs.v — the statements about fuel: under the representation invariant every search
   returns (neither OutOfFuel nor Panic) as soon as fuel >= number of live nodes + maxHeight, which
   is what step gives it. *)
From GL Require Export Base.OrderProofs Mem.MemDB Mem.MemSpec Mem.ArrayLemmas Mem.ListLemmas
  Mem.MemInv Mem.MemFrame Mem.MemFind Mem.MemSpecProofs Mem.MemPut Mem.MemDelete Mem.MemOps
  Mem.MemIter Mem.MemRefine.
From Coq Require Import Lia.
Open Scope N_scope.

Section Fuel.
  Variable c : comparer.
  Hypothesis cok : comparer_ok c.
  Variable p : mparams.
  Hypothesis pok : mparams_ok p.

  Theorem search_fuel_suffices d A L k prev fuel :
    Inv c (tMaxHeight p) d A L ->
    (length L + N.to_nat (maxHeight d) <= fuel)%nat ->
    (exists r, findGE c p fuel d k prev (prev_init p) = Ok r) /\
    (exists r, findLT c p fuel d k = Ok r) /\
    (exists r, findLast p fuel d = Ok r).
  Proof.
    intros I Hf.
    destruct (split_at c cok d L k (inv_sorted _ _ _ _ _ I)) as (Lb & Lr & EL & Hb & Hr).
    destruct (findGE_ok c cok p pok d A L I k prev Lb Lr fuel EL Hb Hr Hf) as (pn & E & _).
    split; [eauto|]. split.
    - rewrite (findLT_ok c p pok d A L I k Lb Lr fuel EL Hb Hr Hf). eauto.
    - rewrite (findLast_ok c p pok d A L I fuel Hf). eauto.
  Qed.

  (* the fuel step hands to every search is exactly that bound *)
  Theorem op_fuel_is_bound d A L :
    Inv c (tMaxHeight p) d A L -> op_fuel d = (length L + N.to_nat (maxHeight d))%nat.
  Proof. intros I. unfold op_fuel. rewrite (inv_n _ _ _ _ _ I). lia. Qed.
End Fuel.
