(* Mem/MemTotal.v — the array model never panics and never runs out of fuel on ANY sequential
   program (heights in range), including those the reference declines (Next on an iterator whose
   key was deleted under it): every operation returns.  Uses the invariants of the
   concurrent development (allocated records keep level-0 links to allocated records). *)
From GL Require Import Mem.MemSpec Mem.MemConc Mem.MemInv Mem.MemOps Mem.MemConcProofs.
Open Scope N_scope.

Section Total.
  Variable c : comparer.
  Hypothesis cok : comparer_ok c.
  Variable p : mparams.
  Hypothesis pok : mparams_ok p.

  Local Notation tmax := (tMaxHeight p).

  Definition SInv (s : mstate) : Prop :=
    exists A L hist,
      Inv c tmax (st_db s) A L /\ FInv c (st_db s) A /\ HInv (st_db s) A hist /\
      Forall (fun ri => Cit c (st_db s) A hist (snd ri)) (st_its s).

  Lemma SInv_DInv s : SInv s <-> exists hist, DInv c p (st_db s) (st_its s) hist.
  Proof.
    split; [intros (A & L & hist & H); exists hist, A, L|intros (hist & A & L & H); exists A, L, hist]; exact H.
  Qed.

  Lemma move_total s id mvm :
    SInv s -> exists s' r, move s id (fun f d it => do_move c p f d it mvm) = Ok (s', r) /\ SInv s'.
  Proof.
    intros HS. apply SInv_DInv in HS as (hist & HD). unfold move.
    destruct (it_lookup id (st_its s)) as [it|] eqn:El.
    - destruct (DInv_move c cok p pok _ _ _ id it mvm HD El) as (it' & ret & -> & HD' & _). cbn [bind].
      eexists _, _. split; [reflexivity|]. apply SInv_DInv. exists hist. exact HD'.
    - exists s, RNoIter. split; [reflexivity|]. apply SInv_DInv. exists hist. exact HD.
  Qed.

  Lemma step_total s o :
    SInv s -> match o with OPut _ _ h => 1 <= h /\ h <= tmax | _ => True end ->
    exists s' r, step c p s o = Ok (s', r) /\ SInv s'.
  Proof.
    intros HS Ho. pose proof (proj1 (SInv_DInv s) HS) as (hist & HD).
    pose proof HD as (A & L & I & HF & HH & Hits). destruct o; cbn [step].
    - destruct Ho as (Hh1 & Hh2). destruct (DInv_put c cok p pok _ _ _ k v h HD Hh1 Hh2) as (d' & -> & HD'). cbn [bind].
      eexists _, _. split; [reflexivity|]. apply SInv_DInv. eexists. exact HD'.
    - destruct (DInv_delete c cok p pok _ _ _ k HD) as (d' & f & -> & HD'). cbn [bind].
      eexists _, _. split; [reflexivity|]. apply SInv_DInv. eexists. exact HD'.
    - destruct (get_conc c cok p pok (st_db s) A L hist I HH k) as (r & -> & _). cbn [bind]. eauto.
    - destruct (find_conc c cok p pok (st_db s) A L hist I HH k) as (r & -> & _). cbn [bind]. eauto.
    - destruct (contains_conc c cok p pok (st_db s) A L I k) as (r & ->). cbn [bind]. eauto.
    - eauto.
    - eauto.
    - eauto.
    - destruct (reset_ok c p pok (st_db s) (inv_head _ _ _ _ _ I)) as (d' & -> & Hrep). cbn [bind].
      eexists _, _. split; [reflexivity|]. apply SInv_DInv. exists []. exact (DInv_empty c p d' Hrep).
    - eexists _, _. split; [reflexivity|]. apply SInv_DInv. exists hist. exact (DInv_new_iter c p _ _ _ _ _ HD).
    - exact (move_total s id MFirst HS).
    - exact (move_total s id MLast HS).
    - exact (move_total s id (MSeek k) HS).
    - exact (move_total s id MNext HS).
    - exact (move_total s id MPrev HS).
  Qed.

  Lemma run_from_total ops :
    forall s, SInv s -> heights_ok tmax ops -> exists s' outs, run_from c p s ops = Ok (s', outs).
  Proof.
    induction ops as [|o ops IH]; intros s HS Hh; cbn [run_from]; [eauto|].
    inversion Hh as [|? ? Ho Hops]; subst.
    destruct (step_total s o HS Ho) as (s1 & r & E & HS1).
    destruct (IH s1 HS1 Hops) as (s2 & outs & E2).
    rewrite E. cbn [bind]. rewrite E2. cbn [bind]. eauto.
  Qed.

  Theorem run_total ops : heights_ok tmax ops -> exists outs, run c p ops = Ok outs.
  Proof.
    intros Hh. unfold run. destruct (new_ok c p pok) as (d & -> & Hrep). cbn [bind].
    destruct (run_from_total ops {| st_db := d; st_its := [] |}) as (s' & outs & E); [|exact Hh|].
    - apply SInv_DInv. exists []. exact (DInv_empty c p d Hrep).
    - rewrite E. cbn [bind]. eauto.
  Qed.
End Total.
