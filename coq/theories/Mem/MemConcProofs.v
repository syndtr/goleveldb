(* Mem/MemConcProofs.v — one writer, many readers over the ARRAY model: every interleaving of
   atomic Put/Delete with reader steps runs without Panic and without OutOfFuel, and everything a
   reader sees is a pair that was stored, inside its slice, strictly increasing along Next and
   strictly decreasing along Prev.

   Beyond the representation invariant this needs, for every record ever allocated (A), live or
   unlinked:
     FInv  its level-0 link is 0 or another allocated record with a strictly larger key
           (Delete leaves the unlinked node's links alone; keys never change), and
     HInv  its current key/value pair is in the writer's log.
   An iterator (Cit) is invalid, or stands on an allocated record whose key it copied. *)
From GL Require Import Base.OrderProofs Mem.MemSpec Mem.MemConc Mem.ArrayLemmas Mem.ListLemmas Mem.MemInv
  Mem.MemFrame Mem.MemFind Mem.MemSpecProofs Mem.MemPut Mem.MemDelete Mem.MemOps Mem.MemIter.
From Coq Require Import Lia.
Open Scope N_scope.

Section ConcProofs.
  Variable c : comparer.
  Hypothesis cok : comparer_ok c.
  Variable p : mparams.
  Hypothesis pok : mparams_ok p.

  Local Notation tmax := (tMaxHeight p).

  Definition FInv (d : db) (A : list N) : Prop :=
    forall x, In x A ->
      nx (nodeData d) x 0 = 0 \/
      (In (nx (nodeData d) x 0) A /\
       lt c (keyof (nodeData d) (kvData d) x) (keyof (nodeData d) (kvData d) (nx (nodeData d) x 0))).

  Definition HInv (d : db) (A : list N) (hist : list (bytes * bytes)) : Prop :=
    forall x, In x A -> In (kvof (nodeData d) (kvData d) x) hist.

  Definition Cit (d : db) (A : list N) (hist : list (bytes * bytes)) (it : iter) : Prop :=
    (it_node it = 0 /\ it_key it = None /\ it_val it = None) \/
    (In (it_node it) A /\
     it_key it = Some (keyof (nodeData d) (kvData d) (it_node it)) /\
     exists v, it_val it = Some v /\ In (keyof (nodeData d) (kvData d) (it_node it), v) hist /\
               in_range c (it_slice it) (keyof (nodeData d) (kvData d) (it_node it)) = true).

  Definition CInv (s : cstate) : Prop :=
    exists A L,
      Inv c tmax (c_db s) A L /\ FInv (c_db s) A /\ HInv (c_db s) A (c_hist s) /\
      Forall (fun ri => Cit (c_db s) A (c_hist s) (snd ri)) (c_its s).

  Lemma rech_A d A L x : Inv c tmax d A L -> In x A -> 0 < rech tmax (nodeData d) x.
  Proof.
    intros I Hx. destruct (inv_node_A c tmax d A L I x Hx) as (H1 & H2 & _).
    unfold rech. pose proof (inv_nonzero c tmax d A L I x Hx). replace (x =? 0) with false by lia. lia.
  Qed.

  Lemma put_conc d A L hist k v h :
    Inv c tmax d A L -> FInv d A -> HInv d A hist -> 1 <= h -> h <= tmax ->
    exists d' A' L',
      mdb_put c p (op_fuel d) d k v h = Ok d' /\
      Inv c tmax d' A' L' /\ FInv d' A' /\ HInv d' A' ((k, v) :: hist) /\
      (forall x, In x A -> In x A' /\ keyof (nodeData d') (kvData d') x = keyof (nodeData d) (kvData d) x).
  Proof.
    intros I HF HH Hh1 Hh2.
    pose proof (op_fuel_ok c p d A L I) as Hfuel.
    destruct (locate c cok p pok d A L k I) as (Lb & Lr & EL & Hb & Hr & HSr & _).
    destruct (exact_of c d k Lr) eqn:Hex.
    - (* overwrite *)
      destruct (exact_head c d k Lr Hex) as (x & Lr' & -> & Hx).
      pose proof (put_overwrite_run c cok p pok d A L I k v x Lb Lr' EL Hb Hx (op_fuel d) h Hr Hfuel) as E.
      pose proof (ow_keyof c cok p d A L I k v x Lb Lr' EL Hx) as Hkey.
      eexists _, A, L. split; [exact E|]. split; [apply (ow_inv c cok p d A L I k v x Lb Lr' EL Hx)|].
      unfold FInv, HInv. cbn [nodeData kvData]. split; [|split].
      + intros y Hy.
        rewrite (ow_nx c cok p d A L I v x Lb Lr' EL y 0 (or_intror Hy) (rech_A d A L y I Hy)).
        destruct (HF y Hy) as [H0|(H1 & H2)]; [left; exact H0|right]. split; [exact H1|].
        rewrite !Hkey by assumption. exact H2.
      + intros y Hy. destruct (N.eq_dec y x) as [->|Hne].
        * rewrite (ow_kvof_x c cok p d A L I k v x Lb Lr' EL Hx). left. reflexivity.
        * rewrite (ow_kvof_other c cok p d A L I k v x Lb Lr' EL y Hy Hne). right. apply HH. exact Hy.
      + intros y Hy. split; [exact Hy|exact (Hkey y Hy)].
    - (* insert *)
      assert (Hgt : forall y, In y Lr -> lt c k (keyof (nodeData d) (kvData d) y)).
      { apply Forall_forall. apply (all_gt_of_inexact c cok); assumption. }
      destruct (put_insert_run c cok p pok d A L I Lb Lr EL k v h Hb Hr (conj Hh1 Hh2) (op_fuel d) Hex Hfuel)
        as (nd' & E & S).
      pose proof (ins_inv c cok p d A L I Lb Lr EL k v h Hb (conj Hh1 Hh2) nd' S Hgt) as I'.
      pose proof (ins_keyof c p d A L I Lb Lr EL k v h (conj Hh1 Hh2) nd' S) as Hkey.
      pose proof (ins_kvof c p d A L I Lb Lr EL k v h (conj Hh1 Hh2) nd' S) as Hkv.
      pose proof (ins_kvof_node d Lb k v h nd' S) as Hnode.
      assert (Hknode : keyof nd' (kvData d ++ k ++ v) (len (nodeData d)) = k).
      { unfold kvof in Hnode. congruence. }
      eexists _, (A ++ [len (nodeData d)]), (Lb ++ len (nodeData d) :: Lr).
      split; [exact E|]. split; [exact I'|]. unfold FInv, HInv. cbn [nodeData kvData]. split; [|split].
      + (* FInv *)
        intros x Hx. apply in_app_or in Hx. destruct Hx as [Hx|[<-|[]]].
        * rewrite (ins_nx c p d A L I Lb Lr EL k v h (conj Hh1 Hh2) nd' S x 0 (or_intror Hx) (rech_A d A L x I Hx)).
          replace (0 <? h) with true by lia. cbn [andb].
          destruct (x =? qof d Lb 0) eqn:Eq.
          -- right. split; [apply in_or_app; right; left; reflexivity|].
             rewrite Hknode, Hkey by exact Hx.
             assert (x = qof d Lb 0) by lia.
             destruct (qof_props c p d A L I Lb Lr EL 0) as (_ & _ & [Q|Q]); [lia| |].
             ++ exfalso. apply (inv_nonzero c tmax d A L I x Hx). congruence.
             ++ rewrite <- H in Q. exact (proj1 (Forall_forall _ _) Hb x Q).
          -- destruct (HF x Hx) as [H0|(H1 & H2)]; [left; exact H0|right]. split.
             ++ apply in_or_app. left. exact H1.
             ++ rewrite !Hkey by assumption. exact H2.
        * (* the new node points to what its predecessor pointed to *)
          destruct S as (S1 & S2 & S3 & S4 & S5 & S6 & S7).
          assert (Hn : nx nd' (len (nodeData d)) 0 = nx (nodeData d) (qof d Lb 0) 0).
          { unfold nx. apply S6. lia. }
          rewrite Hn.
          pose proof (level0_path c p pok d A L I) as Hp. rewrite EL in Hp. apply path_app in Hp as (_ & Hp).
          unfold qof. rewrite (lvl0_sub c p d A L I Lb) by (rewrite EL; apply incl_appl, incl_refl).
          rewrite (path_hd _ _ _ _ _ Hp).
          destruct Lr as [|y Lr']; [left; reflexivity|right]. cbn [hd].
          pose proof (proj2 (cut_incl c p d A L I Lb (y :: Lr') EL) y (or_introl eq_refl)) as HyA.
          split; [apply in_or_app; left; exact HyA|].
          fold (keyof nd' (kvData d ++ k ++ v) (len (nodeData d))).
          rewrite Hknode, Hkey by exact HyA. apply Hgt. left. reflexivity.
      + intros x Hx. apply in_app_or in Hx. destruct Hx as [Hx|[<-|[]]].
        * rewrite Hkv by exact Hx. right. apply HH. exact Hx.
        * rewrite Hnode. left. reflexivity.
      + intros x Hx. split; [apply in_or_app; left; exact Hx|apply Hkey; exact Hx].
  Qed.

  Lemma delete_conc d A L hist k :
    Inv c tmax d A L -> FInv d A -> HInv d A hist ->
    exists d' L' found,
      mdb_delete c p (op_fuel d) d k = Ok (d', found) /\
      Inv c tmax d' A L' /\ FInv d' A /\ HInv d' A hist /\
      (forall x, In x A -> keyof (nodeData d') (kvData d') x = keyof (nodeData d) (kvData d) x).
  Proof.
    intros I HF HH.
    pose proof (op_fuel_ok c p d A L I) as Hfuel.
    destruct (locate c cok p pok d A L k I) as (Lb & Lr & EL & Hb & Hr & HSr & _ & HGE & _).
    destruct (exact_of c d k Lr) eqn:Hex.
    - destruct (exact_head c d k Lr Hex) as (x & Lr' & -> & Hx).
      destruct (delete_run c cok p pok d A L I k x Lb Lr' EL Hb Hx (op_fuel d) Hr Hfuel) as (nd' & E & S).
      pose proof (del_keyof c cok p d A L I x Lb Lr' EL nd' S) as Hkey.
      pose proof (del_kvof c cok p d A L I x Lb Lr' EL nd' S) as Hkv.
      pose proof (del_xA c cok p d A L I x Lb Lr' EL) as HxA.
      eexists _, (Lb ++ Lr'), true. split; [exact E|].
      split; [apply (del_inv c cok p d A L I x Lb Lr' EL nd' S)|]. unfold FInv, HInv. cbn [nodeData kvData].
      split; [|split; [|exact Hkey]].
      + intros y Hy.
        rewrite (del_nx c cok p d A L I x Lb Lr' EL nd' S y 0 (or_intror Hy) (rech_A d A L y I Hy)).
        destruct ((0 <? hgt (nodeData d) x) && (y =? qof d Lb 0)) eqn:Eq.
        * (* y is the level-0 predecessor of the unlinked node: it now points past it *)
          assert (Hyq : y = qof d Lb 0) by lia.
          destruct (qof_props c p d A L I Lb (x :: Lr') EL 0) as (_ & _ & [Q|Q]);
            [pose proof (tmax_pos p pok); lia| |].
          -- exfalso. apply (inv_nonzero c tmax d A L I y Hy). congruence.
          -- rewrite <- Hyq in Q.
             assert (Hyx : lt c (keyof (nodeData d) (kvData d) y) (keyof (nodeData d) (kvData d) x)).
             { pose proof (inv_sorted _ _ _ _ _ I) as HS. rewrite EL in HS.
               apply sorted_app in HS as (_ & _ & HS). rewrite Forall_forall in HS.
               specialize (HS y Q). inversion HS; assumption. }
             destruct (HF x HxA) as [H0|(H1 & H2)]; [left; exact H0|right]. split; [exact H1|].
             rewrite !Hkey by assumption. exact (OrderProofs.lt_trans c cok _ _ _ Hyx H2).
        * destruct (HF y Hy) as [H0|(H1 & H2)]; [left; exact H0|right]. split; [exact H1|].
          rewrite !Hkey by assumption. exact H2.
      + intros y Hy. rewrite Hkv by exact Hy. apply HH. exact Hy.
    - destruct (HGE true) as (pn & E).
      exists d, L, false. split; [|auto].
      unfold mdb_delete. rewrite E. reflexivity.
  Qed.

  (* The reference cursor a reader's iterator is compared with.  It is marked stale, since a writer may have
     unlinked the iterator's node: Rit then asks nothing of the node, and c_next gives no answer, so Next is
     proved on the model directly (next_conc) while First, Last, Seek and Prev go through MemIter.v. *)
  Definition cu_of (it : iter) : cursor :=
    {| cu_slice := it_slice it;
       cu_cur := match it_key it, it_val it with Some k, Some v => Some (k, v) | _, _ => None end;
       cu_fwd := it_fwd it; cu_stale := true |}.

  Lemma find_last_some {X} (f : X -> bool) l e : find_last f l = Some e -> In e l /\ f e = true.
  Proof.
    induction l as [|x l IH]; cbn; [discriminate|].
    destruct (find_last f l) as [y|] eqn:E.
    - intros H. injection H as <-. destruct (IH eq_refl). auto.
    - destruct (f x) eqn:Ef; [|discriminate]. intros H. injection H as <-. auto.
  Qed.

  Lemma in_range_slice_has sl k : in_range c sl k = true -> slice_has c sl k.
  Proof.
    unfold in_range, slice_has, ltb. destruct sl as [(st, li)|]; [|auto]. intros H.
    apply andb_prop in H as (H1 & H2). split.
    - destruct st as [s|]; [|auto]. destruct (cmp c k s); cbn in H1; congruence.
    - destruct li as [l|]; [|auto]. destruct (cmp c k l); congruence.
  Qed.

  Section Readers.
    Variables (d : db) (A L : list N) (hist : list (bytes * bytes)).
    Hypothesis I : Inv c tmax d A L.
    Hypothesis HF : FInv d A.
    Hypothesis HH : HInv d A hist.
    Local Notation nd := (nodeData d).
    Local Notation kv := (kvData d).
    Local Notation m := (abs d L).

    Lemma Cit_Rit it : Cit d A hist it -> Rit c d L it (cu_of it).
    Proof.
      intros [(H0 & Hk & Hv)|(HA & Hk & v & Hv & Hh & Hr)]; unfold Rit, cu_of; cbn [cu_slice cu_fwd cu_cur cu_stale].
      - rewrite Hk. auto.
      - rewrite Hk, Hv. split; [reflexivity|]. split; [reflexivity|].
        split; [exact (inv_nonzero c tmax d A L I _ HA)|]. repeat split; auto. discriminate.
    Qed.

    Lemma in_abs_hist e : In e m -> In e hist.
    Proof.
      unfold abs. intros H. apply in_map_iff in H as (y & <- & Hy). apply HH.
      apply (inv_sub _ _ _ _ _ I). exact Hy.
    Qed.

    (* what an iterator related to a fresh (non-stale) cursor looks like *)
    Lemma landed_good it' cu r fwd :
      Rit c d L it' (cur_at cu r fwd) -> (forall e, r = Some e -> In e m) ->
      Cit d A hist it' /\
      if it_valid it' then
        exists k v, r = Some (k, v) /\ it_key it' = Some k /\ it_val it' = Some v /\
                    In (k, v) hist /\ slice_has c (it_slice it') k
      else it_key it' = None /\ it_val it' = None.
    Proof.
      intros (Hsl & Hfw & Hcur) Hr. cbn [cur_at cu_slice cu_fwd cu_cur cu_stale] in *. unfold it_valid.
      destruct r as [(k, v)|].
      - destruct Hcur as (H0 & Hk & Hv & Hin & Hlive). destruct (Hlive eq_refl) as (HL & Hkey).
        pose proof (in_abs_hist _ (Hr _ eq_refl)) as Hh.
        rewrite (proj2 (N.eqb_neq _ 0) H0). cbn [negb]. split.
        + right. split; [apply (inv_sub _ _ _ _ _ I); exact HL|]. rewrite Hkey. split; [exact Hk|].
          exists v. rewrite Hsl. auto.
        + exists k, v. rewrite Hsl. repeat split; auto. apply in_range_slice_has. exact Hin.
      - destruct Hcur as (H0 & Hk & Hv). rewrite H0, N.eqb_refl. cbn [negb]. split; [left; auto|auto].
    Qed.

    Lemma rit_none_good it' cu' :
      Rit c d L it' cu' -> cu_cur cu' = None ->
      Cit d A hist it' /\ it_valid it' = false /\ it_key it' = None /\ it_val it' = None.
    Proof.
      intros (Hsl & Hfw & Hcur) E. rewrite E in Hcur. destruct Hcur as (H0 & Hk & Hv).
      unfold it_valid. rewrite H0, N.eqb_refl. split; [left; auto|auto].
    Qed.

    Lemma in_vis sl e : In e (vis c sl m) -> In e m.
    Proof. unfold vis. intros H. apply filter_In in H. tauto. Qed.

    Definition good (mvm : mv) (it it' : iter) : Prop := obs_good c (ObsMove mvm it it' hist).

    Lemma first_conc it :
      Cit d A hist it ->
      exists it' ret, it_first c p (op_fuel d) d it = Ok (it', ret) /\ Cit d A hist it' /\
                      good MFirst it it' /\ good MNext (bail it) it'.
    Proof.
      intros HC. destruct (it_first_ok c cok p pok d A L I it (cu_of it) (Cit_Rit it HC)) as (it' & ret & E & HR & _).
      exists it', ret. split; [exact E|]. unfold c_first in HR.
      destruct (landed_good it' _ _ _ HR) as (HC' & Hg).
      - intros e He. apply (in_vis (cu_slice (cu_of it))). destruct (vis c (cu_slice (cu_of it)) m); [discriminate|].
        cbn in He. injection He as <-. left. reflexivity.
      - split; [exact HC'|]. unfold good, obs_good. destruct (it_valid it').
        + destruct Hg as (k & v & _ & Hk & Hv & Hh & Hs). split.
          * exists k, v. repeat split; auto.
          * exists k, v. repeat split; auto. intros k0 Hval. cbn in Hval. discriminate.
        + auto.
    Qed.

    Lemma last_conc it :
      Cit d A hist it ->
      exists it' ret, it_last c p (op_fuel d) d it = Ok (it', ret) /\ Cit d A hist it' /\
                      good MLast it it' /\ good MPrev (bail it) it'.
    Proof.
      intros HC. destruct (it_last_ok c cok p pok d A L I it (cu_of it) (Cit_Rit it HC)) as (it' & ret & E & HR & _).
      exists it', ret. split; [exact E|]. unfold c_last in HR.
      destruct (landed_good it' _ _ _ HR) as (HC' & Hg).
      - intros e He. apply find_last_some in He as (He & _). exact (in_vis _ _ He).
      - split; [exact HC'|]. unfold good, obs_good. destruct (it_valid it').
        + destruct Hg as (k & v & _ & Hk & Hv & Hh & Hs). split.
          * exists k, v. repeat split; auto.
          * exists k, v. repeat split; auto. intros k0 Hval. cbn in Hval. discriminate.
        + auto.
    Qed.

    Lemma seek_conc it t :
      Cit d A hist it ->
      exists it' ret, it_seek c p (op_fuel d) d it t = Ok (it', ret) /\ Cit d A hist it' /\ good (MSeek t) it it'.
    Proof.
      intros HC. destruct (it_seek_ok c cok p pok d A L I it (cu_of it) t (Cit_Rit it HC)) as (it' & ret & E & HR & _).
      exists it', ret. split; [exact E|]. unfold c_seek in HR.
      destruct (landed_good it' _ _ _ HR) as (HC' & Hg).
      - intros e He. apply find_some in He as (He & _). exact (in_vis _ _ He).
      - split; [exact HC'|]. unfold good, obs_good. destruct (it_valid it'); [|exact Hg].
        destruct Hg as (k & v & Hr & Hk & Hv & Hh & Hs). exists k, v. repeat split; auto.
        apply find_some in Hr as (_ & Hr). unfold key_ge, ltb in Hr. cbn [fst] in Hr.
        destruct (cmp c k t); cbn in Hr; congruence.
    Qed.

    Lemma prev_conc it :
      Cit d A hist it ->
      exists it' ret, it_prev c p (op_fuel d) d it = Ok (it', ret) /\ Cit d A hist it' /\ good MPrev it it'.
    Proof.
      intros HC. pose proof (Cit_Rit it HC) as HR0.
      destruct (it_prev_ok c cok p pok d A L I it (cu_of it) HR0) as (it' & ret & E & HR & _).
      exists it', ret. split; [exact E|]. unfold c_prev in HR.
      destruct (cu_cur (cu_of it)) as [(k0, v0)|] eqn:Ecur.
      - destruct (landed_good it' _ _ _ HR) as (HC' & Hg).
        + intros e He. apply find_last_some in He as (He & _). exact (in_vis _ _ He).
        + split; [exact HC'|]. unfold good, obs_good. destruct (it_valid it'); [|exact Hg].
          destruct Hg as (k & v & Hr & Hk & Hv & Hh & Hs). exists k, v. repeat split; auto.
          intros k1 _ Hk1. apply find_last_some in Hr as (_ & Hr). unfold key_lt in Hr. cbn [fst] in Hr.
          apply (ltb_lt c) in Hr.
          unfold cu_of in Ecur. cbn [cu_cur] in Ecur. rewrite Hk1 in Ecur.
          destruct (it_val it); [|discriminate]. injection Ecur as -> _. exact Hr.
      - assert (Hinv : it_valid it = false).
        { destruct HR0 as (_ & _ & H). rewrite Ecur in H. destruct H as (H0 & _). unfold it_valid.
          rewrite H0. reflexivity. }
        destruct (cu_fwd (cu_of it)).
        + unfold c_last in HR. destruct (landed_good it' _ _ _ HR) as (HC' & Hg).
          * intros e He. apply find_last_some in He as (He & _). exact (in_vis _ _ He).
          * split; [exact HC'|]. unfold good, obs_good. destruct (it_valid it'); [|exact Hg].
            destruct Hg as (k & v & Hr & Hk & Hv & Hh & Hs). exists k, v. repeat split; auto.
            intros k1 Hval. congruence.
        + destruct (rit_none_good it' _ HR Ecur) as (HC' & Hv' & Hk' & Hvv).
          split; [exact HC'|]. unfold good, obs_good. rewrite Hv'. auto.
    Qed.

    Lemma next_conc it :
      Cit d A hist it ->
      exists it' ret, it_next c p (op_fuel d) d it = Ok (it', ret) /\ Cit d A hist it' /\ good MNext it it'.
    Proof.
      intros HC. pose proof HC as [(H0 & Hk & Hv)|(HA & Hk & v & Hv & Hh & Hr)].
      - (* invalid iterator: First, or nothing *)
        unfold it_next. rewrite H0, N.eqb_refl.
        destruct (it_fwd it); cbn [negb].
        + exists it, false. split; [reflexivity|]. split; [exact HC|].
          unfold good, obs_good, it_valid. rewrite H0, N.eqb_refl. cbn [negb]. auto.
        + destruct (first_conc it HC) as (it' & ret & E & HC' & _ & Hg).
          exists it', ret. split; [exact E|]. split; [exact HC'|].
          unfold good, obs_good in *. destruct (it_valid it'); [|exact Hg].
          destruct Hg as (k & v & Hk' & Hv' & Hh & Hs & _). exists k, v. repeat split; auto.
          intros k0 Hval. unfold it_valid in Hval. rewrite H0, N.eqb_refl in Hval. discriminate.
      - (* on an allocated record, live or unlinked: follow its level-0 link *)
        set (x := it_node it) in *.
        pose proof (inv_nonzero c tmax d A L I x HA) as Hx0.
        destruct (inv_node_A c tmax d A L I x HA) as (H1 & H2 & H3 & H4 & H5).
        assert (Hb : x + 4 + 0 < len nd) by (clear - H2 H4; lia).
        unfold it_next. fold x. rewrite (proj2 (N.eqb_neq x 0) Hx0).
        rewrite (Enext p pok), <- (N.add_0_r (x + 4)), (aget_ok nd _ Hb). cbn [bind].
        change (rd nd (x + 4 + 0)) with (nx nd x 0).
        destruct (HF x HA) as [Hy0|(HyA & Hlt)].
        + rewrite Hy0. rewrite (fill_zero c p d it true false true).
          eexists _, _. split; [reflexivity|]. split; [left; cbn; auto|].
          unfold good, obs_good, it_valid. cbn. auto.
        + set (y := nx nd x 0) in *.
          rewrite (fill_node c p pok d A L I it y true false true HyA).
          rewrite (fill_bad_limit c).
          destruct (lim_ok c (it_slice it) (keyof nd kv y)) eqn:El; cbn [negb].
          * eexists _, _. split; [reflexivity|].
            assert (Hrange : in_range c (it_slice it) (keyof nd kv y) = true).
            { rewrite in_range_split, El, andb_true_r.
              rewrite in_range_split in Hr. apply andb_prop in Hr as (Hs & _).
              exact (start_ok_mono c cok _ _ _ Hlt Hs). }
            split.
            -- right. cbn [it_node it_key it_val it_slice]. split; [exact HyA|]. split; [reflexivity|].
               exists (valof nd kv y). split; [reflexivity|]. split; [apply (HH y HyA)|exact Hrange].
            -- unfold good, obs_good, it_valid. cbn [it_node it_key it_val it_slice].
               rewrite (proj2 (N.eqb_neq y 0) (inv_nonzero c tmax d A L I y HyA)). cbn [negb].
               exists (keyof nd kv y), (valof nd kv y). repeat split; auto.
               ++ apply (HH y HyA).
               ++ apply in_range_slice_has. exact Hrange.
               ++ intros k0 _ Hk0. rewrite Hk in Hk0. injection Hk0 as <-. exact Hlt.
          * eexists _, _. split; [reflexivity|]. split; [left; cbn; auto|].
            unfold good, obs_good, it_valid. cbn. auto.
    Qed.

    Lemma move_conc it mvm :
      Cit d A hist it ->
      exists it' ret, do_move c p (op_fuel d) d it mvm = Ok (it', ret) /\ Cit d A hist it' /\ good mvm it it'.
    Proof.
      intros HC. destruct mvm; cbn [do_move].
      - destruct (first_conc it HC) as (it' & ret & E & HC' & Hg & _). eauto.
      - destruct (last_conc it HC) as (it' & ret & E & HC' & Hg & _). eauto.
      - apply seek_conc. exact HC.
      - apply next_conc. exact HC.
      - apply prev_conc. exact HC.
    Qed.

    Lemma get_conc k : exists r, mdb_get c p (op_fuel d) d k = Ok r /\ obs_good c (ObsGet k r hist).
    Proof.
      assert (Hrep : rep c p d A L m (len kv)) by (split; [exact I|split; reflexivity]).
      rewrite (get_ok c cok p pok d A L m _ k Hrep). eexists. split; [reflexivity|].
      unfold obs_good, s_get. destruct (find (key_eq c k) m) as [(k', v)|] eqn:E; cbn [option_map snd]; [|exact Logic.I].
      apply find_some in E as (Hin & He). unfold key_eq in He. cbn [fst] in He.
      assert (k' = k).
      { apply (cmp_eq c cok). destruct (cmp c k' k); cbn in He; congruence. }
      subst k'. apply in_abs_hist. exact Hin.
    Qed.

    Lemma find_conc k : exists r, mdb_find c p (op_fuel d) d k = Ok r /\ obs_good c (ObsFind k r hist).
    Proof.
      assert (Hrep : rep c p d A L m (len kv)) by (split; [exact I|split; reflexivity]).
      rewrite (find_ok c cok p pok d A L m _ k Hrep). eexists. split; [reflexivity|].
      unfold obs_good, s_find_ge. destruct (find (key_ge c k) m) as [(k', v)|] eqn:E; [|exact Logic.I].
      apply find_some in E as (Hin & He). split; [apply in_abs_hist; exact Hin|].
      unfold key_ge, ltb in He. cbn [fst] in He. destruct (cmp c k' k); cbn in He; congruence.
    Qed.

    Lemma contains_conc k : exists r, mdb_contains c p (op_fuel d) d k = Ok r.
    Proof.
      assert (Hrep : rep c p d A L m (len kv)) by (split; [exact I|split; reflexivity]).
      rewrite (contains_ok c cok p pok d A L m _ k Hrep). eauto.
    Qed.
  End Readers.

  Lemma Cit_keep d d' A A' hist hist' it :
    (forall x, In x A -> In x A' /\ keyof (nodeData d') (kvData d') x = keyof (nodeData d) (kvData d) x) ->
    incl hist hist' ->
    Cit d A hist it -> Cit d' A' hist' it.
  Proof.
    intros Hk Hh [H|(HA & Hkey & v & Hv & Hin & Hr)]; [left; exact H|right].
    destruct (Hk _ HA) as (HA' & E). rewrite E. split; [exact HA'|]. split; [exact Hkey|].
    exists v. repeat split; auto.
  Qed.

  Lemma lookup_Forall (P : iter -> Prop) its r it :
    Forall (fun ri : N * iter => P (snd ri)) its -> it_lookup r its = Some it -> P it.
  Proof.
    induction 1 as [|(i, x) its Hx _ IH]; cbn; [discriminate|].
    destruct (i =? r); [intros E; injection E as <-; exact Hx|exact IH].
  Qed.

  Lemma store_Forall (P : iter -> Prop) its r it :
    Forall (fun ri : N * iter => P (snd ri)) its -> P it ->
    Forall (fun ri : N * iter => P (snd ri)) (it_store r it its).
  Proof.
    intros H Hit. induction H as [|(i, x) its Hx Htl IH]; cbn.
    - constructor; [exact Hit|constructor].
    - destruct (i =? r); constructor; auto.
  Qed.

  Definition DInv (d : db) (its : iters) (hist : list (bytes * bytes)) : Prop :=
    exists A L, Inv c tmax d A L /\ FInv d A /\ HInv d A hist /\ Forall (fun ri => Cit d A hist (snd ri)) its.

  Lemma DInv_put d its hist k v h :
    DInv d its hist -> 1 <= h -> h <= tmax ->
    exists d', mdb_put c p (op_fuel d) d k v h = Ok d' /\ DInv d' its ((k, v) :: hist).
  Proof.
    intros (A & L & I & HF & HH & Hits) Hh1 Hh2.
    destruct (put_conc d A L hist k v h I HF HH Hh1 Hh2) as (d' & A' & L' & E & I' & HF' & HH' & Hk).
    exists d'. split; [exact E|]. exists A', L'. split; [exact I'|]. split; [exact HF'|]. split; [exact HH'|].
    eapply Forall_impl; [|exact Hits]. intros ri.
    apply (Cit_keep d d' A A' hist); [exact Hk|]. apply incl_tl, incl_refl.
  Qed.

  Lemma DInv_delete d its hist k :
    DInv d its hist -> exists d' f, mdb_delete c p (op_fuel d) d k = Ok (d', f) /\ DInv d' its hist.
  Proof.
    intros (A & L & I & HF & HH & Hits).
    destruct (delete_conc d A L hist k I HF HH) as (d' & L' & f & E & I' & HF' & HH' & Hk).
    exists d', f. split; [exact E|]. exists A, L'. split; [exact I'|]. split; [exact HF'|]. split; [exact HH'|].
    eapply Forall_impl; [|exact Hits]. intros ri.
    apply (Cit_keep d d' A A hist); [|apply incl_refl]. intros x Hx. split; [exact Hx|exact (Hk x Hx)].
  Qed.

  Lemma DInv_new_iter d its hist r sl : DInv d its hist -> DInv d (it_store r (new_iter sl) its) hist.
  Proof.
    intros (A & L & I & HF & HH & Hits). exists A, L. split; [exact I|]. split; [exact HF|]. split; [exact HH|].
    apply store_Forall; [exact Hits|]. left. cbn. auto.
  Qed.

  Lemma DInv_move d its hist r it mvm :
    DInv d its hist -> it_lookup r its = Some it ->
    exists it' ret, do_move c p (op_fuel d) d it mvm = Ok (it', ret) /\
                    DInv d (it_store r it' its) hist /\ obs_good c (ObsMove mvm it it' hist).
  Proof.
    intros (A & L & I & HF & HH & Hits) El.
    destruct (move_conc d A L hist I HF HH it mvm (lookup_Forall _ _ _ _ Hits El)) as (it' & ret & E & HC' & Hg).
    exists it', ret. split; [exact E|]. split; [|exact Hg].
    exists A, L. split; [exact I|]. split; [exact HF|]. split; [exact HH|]. apply store_Forall; assumption.
  Qed.

  Lemma DInv_empty d : rep c p d [] [] [] 0 -> DInv d [] [].
  Proof.
    intros (I & _). exists [], []. split; [exact I|]. split; [intros x []|]. split; [intros x []|constructor].
  Qed.

  Lemma cstep_safe s a :
    CInv s -> match a with AWPut _ _ h => 1 <= h /\ h <= tmax | _ => True end ->
    exists s' o, cstep c p s a = Ok (s', o) /\ CInv s' /\ obs_good c o.
  Proof.
    intros HD Ha. pose proof HD as (A & L & I & HF & HH & Hits). destruct a; cbn [cstep].
    - destruct Ha as (Hh1 & Hh2). destruct (DInv_put _ _ _ k v h HD Hh1 Hh2) as (d' & -> & HD'). cbn [bind].
      eexists _, _. split; [reflexivity|]. split; [exact HD'|exact Logic.I].
    - destruct (DInv_delete _ _ _ k HD) as (d' & f & -> & HD'). cbn [bind].
      eexists _, _. split; [reflexivity|]. split; [exact HD'|exact Logic.I].
    - eexists _, _. split; [reflexivity|]. split; [exact (DInv_new_iter _ _ _ _ _ HD)|exact Logic.I].
    - destruct (it_lookup r (c_its s)) as [it|] eqn:El.
      + destruct (DInv_move _ _ _ r it m HD El) as (it' & ret & -> & HD' & Hg). cbn [bind].
        eexists _, _. split; [reflexivity|]. split; [exact HD'|exact Hg].
      + exists s, ObsNone. split; [reflexivity|]. split; [exact HD|exact Logic.I].
    - destruct (get_conc (c_db s) A L (c_hist s) I HH k) as (r & -> & Hg). cbn [bind].
      eexists _, _. split; [reflexivity|]. split; [exact HD|exact Hg].
    - destruct (find_conc (c_db s) A L (c_hist s) I HH k) as (r & -> & Hg). cbn [bind].
      eexists _, _. split; [reflexivity|]. split; [exact HD|exact Hg].
    - destruct (contains_conc (c_db s) A L I k) as (r & ->). cbn [bind].
      eexists _, _. split; [reflexivity|]. split; [exact HD|exact Logic.I].
  Qed.

  Lemma crun_from_safe acts :
    forall s, CInv s -> aheights_ok p acts ->
    exists obs, crun_from c p s acts = Ok obs /\ Forall (obs_good c) obs.
  Proof.
    induction acts as [|a acts IH]; intros s HC Hh; cbn [crun_from].
    - exists []. auto.
    - inversion Hh as [|? ? Ha Hacts]; subst.
      destruct (cstep_safe s a HC Ha) as (s' & o & E & HC' & Ho).
      destruct (IH s' HC' Hacts) as (obs & E' & Hobs).
      rewrite E. cbn [bind]. rewrite E'. cbn [bind]. exists (o :: obs). auto.
  Qed.

  (* every interleaving of one writer with any number of readers *)
  Theorem conc_safe acts :
    aheights_ok p acts -> exists obs, crun c p acts = Ok obs /\ Forall (obs_good c) obs.
  Proof.
    intros Hh. unfold crun. destruct (new_ok c p pok) as (d & -> & Hrep). cbn [bind].
    apply crun_from_safe; [exact (DInv_empty d Hrep)|exact Hh].
  Qed.
End ConcProofs.
