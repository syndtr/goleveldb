(* Mem/MemPut.v — Put on the array model: what the link loop does to nodeData, and both
   branches (insert a new node / overwrite in place) preserve the representation invariant;
   the list of stored pairs gains the new pair at the cut, or has the value replaced in place. *)
From GL Require Import Mem.MemDB Mem.ArrayLemmas Mem.ListLemmas Mem.MemInv Mem.MemFrame Mem.MemFind.
From Coq Require Import Lia.
Open Scope N_scope.

Section Put.
  Variable c : comparer.
  Hypothesis cok : comparer_ok c.
  Variable p : mparams.
  Hypothesis pok : mparams_ok p.

  Local Notation tmax := (tMaxHeight p).

  Lemma put_link_spec (pn : list N) (node : N) (nd0 : list N) :
    forall cnt i nd,
      len nd0 <= len nd ->
      i + N.of_nat cnt <= len pn ->
      (forall l, i <= l < i + N.of_nat cnt -> rd pn l + 4 + l < len nd0) ->
      (forall l l', i <= l < i + N.of_nat cnt -> i <= l' < i + N.of_nat cnt -> l <> l' ->
                    rd pn l + l <> rd pn l' + l') ->
      exists nd',
        put_link p cnt i pn nd node = Ok nd' /\
        len nd' = len nd + N.of_nat cnt /\
        (forall s, s < len nd -> (forall l, i <= l < i + N.of_nat cnt -> s <> rd pn l + 4 + l) ->
                   rd nd' s = rd nd s) /\
        (forall l, i <= l < i + N.of_nat cnt ->
                   rd nd' (rd pn l + 4 + l) = node /\
                   rd nd' (len nd + (l - i)) = rd nd (rd pn l + 4 + l)).
  Proof.
    induction cnt as [|cnt IH]; intros i nd Hlen Hpn Hin Hdist.
    - exists nd. cbn [put_link]. split; [reflexivity|]. split; [lia|]. split; [auto|]. intros l Hl. lia.
    - cbn [put_link]. rewrite (Enext p pok).
      rewrite (aget_ok pn i) by lia. cbn [bind].
      set (m := rd pn i + 4 + i).
      assert (Hm : m < len nd0) by (apply Hin; lia).
      rewrite (aget_ok nd m) by lia. cbn [bind].
      assert (Hm2 : m < len (nd ++ [rd nd m])) by (rewrite len_app; lia).
      rewrite (aset_ok _ m node Hm2). cbn [bind].
      set (nd2 := upd (nd ++ [rd nd m]) m node).
      assert (Hl2 : len nd2 = len nd + 1).
      { unfold nd2. rewrite len_upd by exact Hm2. rewrite len_app. reflexivity. }
      destruct (IH (i + 1) nd2) as (nd' & E & Hl' & Hun & Hhit).
      + lia.
      + lia.
      + intros l Hl. apply Hin. lia.
      + intros l l' Hl Hl'. apply Hdist; lia.
      + exists nd'. split; [exact E|]. split; [lia|]. split.
        * intros s Hs Hne. rewrite Hun.
          -- unfold nd2. rewrite rd_upd_other; [|exact Hm2|apply Hne; lia]. apply rd_app1. exact Hs.
          -- lia.
          -- intros l Hl. apply Hne. lia.
        * intros l Hl. destruct (N.eq_dec l i) as [->|Hne].
          -- fold m. split.
             ++ rewrite Hun.
                ** unfold nd2. apply rd_upd_same. exact Hm2.
                ** lia.
                ** intros l Hl3. unfold m. specialize (Hdist i l). lia.
             ++ replace (i - i) with 0 by lia. rewrite N.add_0_r. rewrite Hun.
                ** unfold nd2. rewrite rd_upd_other; [|exact Hm2|lia].
                   replace (len nd) with (len nd + 0) at 1 by lia. rewrite rd_app2. reflexivity.
                ** lia.
                ** intros l Hl3. specialize (Hin l). lia.
          -- destruct (Hhit l) as (H1 & H2); [lia|]. split; [exact H1|].
             replace (len nd + (l - i)) with (len nd2 + (l - (i + 1))) by lia. rewrite H2.
             unfold nd2. rewrite rd_upd_other; [|exact Hm2|].
             ++ apply rd_app1. specialize (Hin l). lia.
             ++ unfold m. specialize (Hdist l i). lia.
  Qed.

  Lemma zero_prev_spec :
    forall cnt i pn,
      i + N.of_nat cnt <= len pn ->
      exists pn', zero_prev cnt i pn = Ok pn' /\ len pn' = len pn /\
                  (forall j, i <= j < i + N.of_nat cnt -> rd pn' j = 0) /\
                  (forall j, ~ (i <= j < i + N.of_nat cnt) -> rd pn' j = rd pn j).
  Proof.
    induction cnt as [|cnt IH]; intros i pn H.
    - exists pn. cbn [zero_prev]. split; [reflexivity|]. split; [reflexivity|]. split; [intros j Hj; lia|auto].
    - cbn [zero_prev]. rewrite (aset_ok pn i 0) by lia. cbn [bind].
      destruct (IH (i + 1) (upd pn i 0)) as (pn' & E & Hl & Hr0 & Hr).
      + rewrite len_upd by lia. lia.
      + exists pn'. split; [exact E|]. split; [rewrite Hl; apply len_upd; lia|]. split.
        * intros j Hj. destruct (N.eq_dec j i) as [->|Hne].
          -- rewrite Hr by lia. apply rd_upd_same. lia.
          -- apply Hr0. lia.
        * intros j Hj. rewrite Hr by lia. apply rd_upd_other; lia.
  Qed.

  (* Put clears prevNode on the levels from maxHeight up to the new height; findGE left 0, the head,
     there already *)
  Lemma zero_prev_above pn (f : N -> N) mh h :
    h <= len pn -> (forall j, j < len pn -> rd pn j = f j) -> (forall j, mh <= j -> f j = 0) ->
    exists pn1,
      (if mh <? h then zero_prev (N.to_nat (h - mh)) mh pn else Ok pn) = Ok pn1 /\
      len pn1 = len pn /\ forall j, j < len pn -> rd pn1 j = f j.
  Proof.
    intros Hh Hpn Hf. destruct (mh <? h) eqn:Emh; [|exists pn; auto].
    destruct (zero_prev_spec (N.to_nat (h - mh)) mh pn) as (pn1 & E1 & Hl1 & Hz & Hs); [lia|].
    exists pn1. split; [exact E1|]. split; [exact Hl1|]. intros j Hj.
    destruct (N.le_gt_cases mh j) as [Hge|Hlt]; [destruct (N.lt_ge_cases j h) as [Hjh|Hjh]|].
    - rewrite Hz by lia. symmetry. apply Hf. exact Hge.
    - rewrite Hs by lia. apply Hpn. exact Hj.
    - rewrite Hs by lia. apply Hpn. exact Hj.
  Qed.

  (* what nodeData looks like after inserting a node of height h behind the nodes q 0 .. q (h-1) *)
  Definition ins_shape (nd nd' : list N) (kvlen klen vlen h : N) (q : N -> N) : Prop :=
    let node := len nd in
    len nd' = len nd + 4 + h /\
    rd nd' node = kvlen /\ rd nd' (node + 1) = klen /\ rd nd' (node + 2) = vlen /\ rd nd' (node + 3) = h /\
    (forall l, l < h -> rd nd' (q l + 4 + l) = node /\ rd nd' (node + 4 + l) = rd nd (q l + 4 + l)) /\
    (forall s, s < len nd -> (forall l, l < h -> s <> q l + 4 + l) -> rd nd' s = rd nd s).

  (* the link loop, run over all h levels behind the freshly appended header of the new node *)
  Lemma put_link_shape pn (q : N -> N) nd kvlen klen vlen h :
    h <= len pn -> (forall l, l < h -> rd pn l = q l) ->
    (forall l, l < h -> q l + 4 + l < len nd) ->
    (forall l l', l < h -> l' < h -> l <> l' -> q l + l <> q l' + l') ->
    exists nd', put_link p (N.to_nat h) 0 pn (nd ++ [kvlen; klen; vlen; h]) (len nd) = Ok nd' /\ ins_shape nd nd' kvlen klen vlen h q.
  Proof.
    intros Hpn Hq Hin Hdist.
    set (nd0 := nd ++ [kvlen; klen; vlen; h]).
    assert (Hl0 : len nd0 = len nd + 4) by (unfold nd0; rewrite len_app; reflexivity).
    destruct (put_link_spec pn (len nd) nd (N.to_nat h) 0 nd0) as (nd' & E' & Hl' & Hun & Hhit).
    - lia.
    - lia.
    - intros l Hl. rewrite Hq by lia. apply Hin. lia.
    - intros l l' Hl Hl' Hne. rewrite !Hq by lia. apply Hdist; lia.
    - exists nd'. split; [exact E'|].
      assert (Hfield : forall f, f < 4 -> rd nd' (len nd + f) = rd [kvlen; klen; vlen; h] f).
      { intros f Hf. rewrite Hun.
        - unfold nd0. apply rd_app2.
        - lia.
        - intros l Hl. rewrite Hq by lia. specialize (Hin l). lia. }
      unfold ins_shape. split; [lia|].
      split; [rewrite <- (N.add_0_r (len nd)) at 1; apply (Hfield 0); lia|].
      split; [apply (Hfield 1); lia|].
      split; [apply (Hfield 2); lia|].
      split; [apply (Hfield 3); lia|].
      split.
      + intros l Hl. destruct (Hhit l) as (H1 & H2); [lia|]. rewrite Hq in H1, H2 by lia. split; [exact H1|].
        replace (len nd + 4 + l) with (len nd0 + (l - 0)) by lia. rewrite H2.
        unfold nd0. apply rd_app1. apply Hin. exact Hl.
      + intros s Hs Hne. rewrite Hun.
        * unfold nd0. apply rd_app1. exact Hs.
        * lia.
        * intros l Hl. rewrite Hq by lia. apply Hne. lia.
  Qed.

  (* The live list cut in two, L = Lb ++ Lr.  On level l the last node of Lb that is taller than l
     (the head if there is none) is the node whose link l a writer at the cut rewrites. *)
  Section Cut.
    Variables (d : db) (A L : list N).
    Hypothesis I : Inv c tmax d A L.
    Local Notation nd := (nodeData d).
    Local Notation kv := (kvData d).
    Variables (Lb Lr : list N).
    Hypothesis EL : L = Lb ++ Lr.

    Definition qof (l : N) : N := last (lvl nd l Lb) 0.

    Lemma cut_incl : incl Lb A /\ incl Lr A.
    Proof.
      pose proof (inv_sub _ _ _ _ _ I) as Hsub. rewrite EL in Hsub.
      split; intros x Hx; apply Hsub; apply in_or_app; auto.
    Qed.

    Lemma cut_NoDup : NoDup Lb /\ NoDup Lr /\ (forall u, In u Lb -> In u Lr -> False).
    Proof.
      assert (HND : NoDup L) by (apply (key_sorted_NoDup c cok nd kv); apply (inv_sorted _ _ _ _ _ I)).
      rewrite EL in HND. split; [exact (NoDup_app_l _ _ HND)|]. split; [exact (NoDup_app_r _ _ HND)|].
      intros u. exact (NoDup_app_disjoint Lb Lr u HND).
    Qed.

    Lemma qof_props l : l < tmax -> inh A (qof l) /\ l < rech tmax nd (qof l) /\ (qof l = 0 \/ In (qof l) Lb).
    Proof.
      intros Hl. unfold qof.
      destruct (lvl nd l Lb) as [|y r] eqn:E.
      - cbn. unfold inh, rech. repeat split; auto.
      - assert (Hin : In (last (y :: r) 0) (lvl nd l Lb)) by (rewrite E; apply last_in; discriminate).
        apply lvl_incl in Hin as (Hin & Hlt). pose proof (proj1 cut_incl _ Hin) as HA.
        rewrite (rech_node c tmax d A L I _ HA). unfold inh. auto.
    Qed.

    Lemma qof_slot_bound l : l < tmax -> qof l + 4 + l < len nd.
    Proof.
      intros Hl. destruct (qof_props l Hl) as (H1 & H2 & _).
      replace (qof l + 4 + l) with (qof l + (4 + l)) by lia.
      apply (slot_in_bounds c tmax d A L I _ _ H1). lia.
    Qed.

    Lemma qof_slots_apart l l' : l < tmax -> l' < tmax -> l <> l' -> qof l + l <> qof l' + l'.
    Proof.
      intros Hl Hl' Hne E.
      destruct (qof_props l Hl) as (Q1 & Q2 & _). destruct (qof_props l' Hl') as (Q1' & Q2' & _).
      destruct (slot_distinct c tmax d A L I (qof l) (qof l') (4 + l) (4 + l') Q1 Q1'); lia.
    Qed.

    Section Relink.
      Variables (nd' : list N) (h : N) (g : N -> N).
      Hypothesis Hh : h <= tmax.
      Hypothesis R : relinked nd nd' h qof g.

      Lemma qof_links l : l < h -> inh A (qof l) /\ l < rech tmax nd (qof l).
      Proof. intros Hl. destruct (qof_props l) as (Q1 & Q2 & _); [lia|auto]. Qed.

      Lemma relink_same_fields : same_fields nd nd' A.
      Proof. exact (relinked_same_fields c tmax d A L I nd' h qof g qof_links R). Qed.

      Lemma relink_nx x i :
        inh A x -> i < rech tmax nd x -> nx nd' x i = if (i <? h) && (x =? qof i) then g i else nx nd x i.
      Proof. exact (relinked_nx c tmax d A L I nd' h qof g qof_links R x i). Qed.

      (* the chain of level i up to the cut: only its last link can have been rewritten *)
      Lemma relink_before i y :
        i < tmax -> path nd i 0 (lvl nd i Lb) y -> path nd' i 0 (lvl nd i Lb) (if i <? h then g i else y).
      Proof.
        intros Hi Hc. destruct cut_incl as (HLbA & _).
        assert (Hin : forall u, In u (0 :: lvl nd i Lb) -> inh A u /\ i < rech tmax nd u).
        { intros u [<-|Hu].
          - split; [left; reflexivity|]. unfold rech. rewrite N.eqb_refl. exact Hi.
          - apply lvl_incl in Hu as (Hu1 & Hu2). apply HLbA in Hu1.
            rewrite (rech_node c tmax d A L I u Hu1). split; [right; exact Hu1|exact Hu2]. }
        destruct (i <? h) eqn:Eih.
        - apply (path_upd_last nd nd' i 0 (lvl nd i Lb) y (g i)); [| | |exact Hc].
          + constructor.
            * intros H0. apply lvl_incl in H0 as (H0 & _).
              exact (inv_nonzero c tmax d A L I 0 (HLbA 0 H0) eq_refl).
            * unfold lvl. apply NoDup_filter. apply cut_NoDup.
          + intros u Hu Hne. destruct (Hin u Hu) as (U1 & U2). rewrite relink_nx by assumption.
            fold (qof i) in Hne. replace (u =? qof i) with false by lia. now rewrite andb_false_r.
          + fold (qof i). destruct (qof_links i) as (Q1 & Q2); [lia|].
            rewrite relink_nx by assumption. now rewrite Eih, N.eqb_refl.
        - apply (path_ext nd nd' i 0 (lvl nd i Lb) y); [|exact Hc].
          intros u Hu. destruct (Hin u Hu) as (U1 & U2). rewrite relink_nx by assumption. now rewrite Eih.
      Qed.

      Lemma relink_after u i : In u Lr -> i < hgt nd u -> nx nd' u i = nx nd u i.
      Proof.
        intros Hu Hi. pose proof (proj2 cut_incl u Hu) as HuA.
        destruct (inv_node_A c tmax d A L I u HuA) as (_ & _ & H3 & _). destruct (inv_mh _ _ _ _ _ I).
        rewrite relink_nx; [|right; exact HuA|rewrite (rech_node c tmax d A L I u HuA); exact Hi].
        destruct (N.eq_dec u (qof i)) as [E|E]; [|replace (u =? qof i) with false by lia; now rewrite andb_false_r].
        exfalso. destruct (qof_props i) as (_ & _ & [Q|Q]); [lia| |].
        - rewrite Q in E. exact (inv_nonzero c tmax d A L I u HuA E).
        - rewrite <- E in Q. exact (proj2 (proj2 cut_NoDup) u Q Hu).
      Qed.

      Lemma relink_suffix i z z' l :
        incl l Lr -> nx nd' z' i = nx nd z i -> path nd i z (lvl nd i l) 0 -> path nd' i z' (lvl nd i l) 0.
      Proof.
        intros Hl Hz. apply path_ext_from; [exact Hz|].
        intros u Hu. apply lvl_incl in Hu as (Hu1 & Hu2). apply relink_after; auto.
      Qed.
    End Relink.

    (* a new node of height h with key k between Lb and Lr *)
    Section Insert.
      Variables (k v : bytes) (h : N).
      Hypothesis Hb : Forall (ltk c d k) Lb.
      Hypothesis Hr : Forall (gek c d k) Lr.
      Hypothesis Hh : 1 <= h /\ h <= tmax.

      Section Shape.
        Variable nd' : list N.
        Hypothesis S : ins_shape nd nd' (len kv) (len k) (len v) h qof.
        Hypothesis Hgt : forall y, In y Lr -> lt c k (keyof nd kv y).
        Local Notation node := (len nd).
        Local Notation kv' := (kv ++ k ++ v).
        Local Notation mh' := (if maxHeight d <? h then h else maxHeight d).

        Lemma ins_relinked : relinked nd nd' h qof (fun _ => node).
        Proof.
          destruct S as (_ & _ & _ & _ & _ & S6 & S7). split; [|exact S7]. intros l Hl. apply S6. exact Hl.
        Qed.

        Lemma ins_same_fields : same_fields nd nd' A.
        Proof. exact (relink_same_fields nd' h _ (proj2 Hh) ins_relinked). Qed.

        Lemma ins_nx x i :
          inh A x -> i < rech tmax nd x ->
          nx nd' x i = if (i <? h) && (x =? qof i) then node else nx nd x i.
        Proof. exact (relink_nx nd' h _ (proj2 Hh) ins_relinked x i). Qed.

        Lemma ins_kvof x : In x A -> kvof nd' kv' x = kvof nd kv x.
        Proof.
          exact (kvof_same tmax nd nd' kv (k ++ v) (maxHeight d) A (inv_nodes _ _ _ _ _ I) ins_same_fields x).
        Qed.

        Lemma ins_keyof x : In x A -> keyof nd' kv' x = keyof nd kv x.
        Proof. intros Hx. pose proof (ins_kvof x Hx) as E. unfold kvof in E. congruence. Qed.

        Lemma ins_hgt_node : hgt nd' node = h.
        Proof. destruct S as (S1 & S2 & S3 & S4 & S5 & S6 & S7). exact S5. Qed.

        Lemma ins_kvof_node : kvof nd' kv' node = (k, v).
        Proof.
          destruct S as (S1 & S2 & S3 & S4 & S5 & S6 & S7).
          unfold kvof, keyof, valof. rewrite S2, S3, S4. now rewrite sl_app_mid, sl_app_end.
        Qed.

        Lemma ins_lvl i :
          lvl nd' i (Lb ++ node :: Lr) = lvl nd i Lb ++ (if i <? h then [node] else []) ++ lvl nd i Lr.
        Proof.
          destruct cut_incl as (HLbA & HLrA).
          rewrite lvl_app. unfold lvl at 2. cbn [filter]. fold (lvl nd' i Lr).
          rewrite ins_hgt_node.
          rewrite (lvl_same nd nd' A ins_same_fields i Lb HLbA), (lvl_same nd nd' A ins_same_fields i Lr HLrA).
          destruct (i <? h); reflexivity.
        Qed.

        Lemma node_fresh : ~ In node A.
        Proof using I Hh.
          intros Hin. destruct (inv_node_A c tmax d A L I _ Hin) as (H1 & H2 & H3 & H4 & H5). lia.
        Qed.

        Lemma ins_inv :
          Inv c tmax {| kvData := kv'; nodeData := nd'; maxHeight := mh'; nEnt := (nEnt d + 1)%Z;
                        kvSize := (kvSize d + Z.of_N (len k) + Z.of_N (len v))%Z |}
              (A ++ [node]) (Lb ++ node :: Lr).
        Proof.
          pose proof S as (S1 & S2 & S3 & S4 & S5 & S6 & S7).
          pose proof (inv_head _ _ _ _ _ I) as Hhead.
          destruct (inv_mh _ _ _ _ _ I) as (Hmh1 & Hmh2).
          pose proof (inv_nodes _ _ _ _ _ I) as Hnodes.
          destruct cut_incl as (HLbA & HLrA).
          assert (Hmhle : maxHeight d <= mh') by (destruct (maxHeight d <? h) eqn:E; lia).
          assert (Hlenle : len nd <= len nd') by lia.
          assert (Knew : keyof nd' kv' node = k).
          { pose proof ins_kvof_node as E. unfold kvof in E. congruence. }
          constructor; cbn [nodeData kvData maxHeight nEnt kvSize].
          - lia.
          - destruct (maxHeight d <? h) eqn:E; lia.
          - apply Forall_app. split.
            + apply Forall_forall. intros x Hx.
              exact (node_ok_same tmax nd nd' kv (k ++ v) (maxHeight d) A Hnodes ins_same_fields mh' x Hlenle Hmhle Hx).
            + constructor; [|constructor]. unfold node_ok. fold (hgt nd' node). rewrite ins_hgt_node.
              rewrite S2, S3, S4, !len_app.
              destruct (maxHeight d <? h) eqn:E; repeat split; lia.
          - intros x y Hx Hy Hlt.
            apply in_app_or in Hx. apply in_app_or in Hy.
            destruct Hx as [Hx|[<-|[]]], Hy as [Hy|[<-|[]]].
            + destruct (ins_same_fields x Hx) as (_ & _ & _ & ->). apply (inv_disj _ _ _ _ _ I); auto.
            + destruct (ins_same_fields x Hx) as (_ & _ & _ & ->).
              destruct (inv_node_A c tmax d A L I x Hx) as (H1 & H2 & H3 & H4 & H5). lia.
            + destruct (inv_node_A c tmax d A L I y Hy) as (H1 & H2 & H3 & H4 & H5). lia.
            + lia.
          - intros x Hx. apply in_app_or in Hx. apply in_or_app.
            destruct Hx as [Hx|[<-|Hx]]; [left; auto|right; left; reflexivity|left; auto].
          - (* the old nodes keep their keys and their order; the new key fits at the cut *)
            apply sorted_insert.
            + rewrite <- EL.
              exact (key_sorted_same c tmax nd nd' kv (k ++ v) (maxHeight d) A Hnodes ins_same_fields
                       L (inv_sub _ _ _ _ _ I) (inv_sorted _ _ _ _ _ I)).
            + apply Forall_forall. intros x Hx. rewrite Knew, ins_keyof by (apply HLbA; exact Hx).
              exact (proj1 (Forall_forall _ _) Hb x Hx).
            + apply Forall_forall. intros y Hy. rewrite Knew, ins_keyof by (apply HLrA; exact Hy).
              exact (Hgt y Hy).
          - (* chains: on the levels below h the node before the cut now points to the new node, which
               has taken over its link *)
            intros i Hi. rewrite ins_lvl.
            pose proof (inv_chain _ _ _ _ _ I i Hi) as Hc. rewrite EL, lvl_app in Hc.
            apply path_app in Hc as (Hc1 & Hc2). fold (qof i) in Hc2.
            apply (relink_before nd' h _ (proj2 Hh) ins_relinked i _ Hi) in Hc1.
            destruct (i <? h) eqn:Eih; cbn [app].
            + apply path_app_cons. split; [exact Hc1|].
              apply (relink_suffix nd' h _ (proj2 Hh) ins_relinked i (qof i) node Lr (incl_refl _)); [|exact Hc2].
              unfold nx. apply S6. lia.
            + apply path_app. split; [exact Hc1|]. fold (qof i).
              apply (relink_suffix nd' h _ (proj2 Hh) ins_relinked i (qof i) (qof i) Lr (incl_refl _)); [|exact Hc2].
              destruct (qof_props i Hi) as (Q1 & Q2 & _). rewrite ins_nx by assumption. now rewrite Eih.
          - rewrite (inv_n _ _ _ _ _ I), EL, !app_length. cbn [length]. lia.
          - rewrite (inv_size _ _ _ _ _ I), EL, !sum_kv_app. cbn [sum_kv].
            rewrite S3, S4.
            rewrite (sum_kv_same nd nd' A ins_same_fields Lb HLbA).
            rewrite (sum_kv_same nd nd' A ins_same_fields Lr HLrA). lia.
        Qed.

        Lemma ins_abs :
          map (kvof nd' kv') (Lb ++ node :: Lr) = map (kvof nd kv) Lb ++ (k, v) :: map (kvof nd kv) Lr.
        Proof.
          destruct cut_incl as (HLbA & HLrA).
          rewrite map_app. cbn [map]. rewrite ins_kvof_node. f_equal; [|f_equal].
          - apply map_ext_in. intros x Hx. apply ins_kvof. apply HLbA. exact Hx.
          - apply map_ext_in. intros x Hx. apply ins_kvof. apply HLrA. exact Hx.
        Qed.
      End Shape.

      Lemma put_insert_run fuel :
        exact_of c d k Lr = false ->
        (length L + N.to_nat (maxHeight d) <= fuel)%nat ->
        exists nd',
          mdb_put c p fuel d k v h =
            Ok {| kvData := kv ++ k ++ v; nodeData := nd';
                  maxHeight := (if maxHeight d <? h then h else maxHeight d);
                  nEnt := (nEnt d + 1)%Z;
                  kvSize := (kvSize d + Z.of_N (len k) + Z.of_N (len v))%Z |} /\
          ins_shape nd nd' (len kv) (len k) (len v) h qof.
      Proof.
        intros Hex Hfuel.
        destruct (inv_mh _ _ _ _ _ I) as (Hmh1 & Hmh2).
        destruct (findGE_ok c cok p pok d A L I k true Lb Lr fuel EL Hb Hr Hfuel) as (pn & E & Hlpn & Hpn).
        specialize (Hpn eq_refl). fold qof in Hpn.
        unfold mdb_put. rewrite E. cbn [bind]. rewrite Hex.
        destruct (zero_prev_above pn qof (maxHeight d) h) as (pn1 & -> & Hlpn1 & Hq).
        { lia. }
        { intros j Hj. apply Hpn. lia. }
        { intros j Hj. unfold qof. rewrite (lvl_above_mh c p d A L I j Lb); [reflexivity| |exact Hj].
          rewrite EL. apply incl_appl, incl_refl. }
        cbn [bind]. rewrite Hlpn in Hlpn1, Hq.
        replace (tMaxHeight p <? h) with false by lia.
        destruct (put_link_shape pn1 qof nd (len kv) (len k) (len v) h) as (nd' & E' & S).
        - lia.
        - intros l Hl. apply Hq. lia.
        - intros l Hl. apply qof_slot_bound. lia.
        - intros l l' Hl Hl'. apply qof_slots_apart; lia.
        - rewrite E'. cbn [bind]. exists nd'. split; [reflexivity|exact S].
      Qed.
    End Insert.
  End Cut.

  (* a node of the live list: allocated, and nowhere else in the list *)
  Lemma cut_at d A L x Lb Lr :
    Inv c tmax d A L -> L = Lb ++ x :: Lr -> In x A /\ ~ In x Lb /\ ~ In x Lr.
  Proof.
    intros I EL. destruct (cut_NoDup d A L I Lb (x :: Lr) EL) as (_ & Hn & Ha).
    split; [exact (proj2 (cut_incl d A L I Lb (x :: Lr) EL) x (or_introl eq_refl))|]. split.
    - intros Hin. exact (Ha x Hin (or_introl eq_refl)).
    - exact (proj1 (proj1 (NoDup_cons_iff _ _) Hn)).
  Qed.

  (* the key is present at node x: its value is replaced in place *)
  Section Overwrite.
    Variables (d : db) (A L : list N).
    Hypothesis I : Inv c tmax d A L.
    Local Notation nd := (nodeData d).
    Local Notation kv := (kvData d).
    Variables (k v : bytes) (x : N) (Lb Lr : list N).
    Hypothesis EL : L = Lb ++ x :: Lr.
    Hypothesis Hb : Forall (ltk c d k) Lb.
    Hypothesis Hx : cmp c (keyof nd kv x) k = Eq.

    Local Notation nd2 := (upd (upd nd x (len kv)) (x + 2) (len v)).
    Local Notation kv' := (kv ++ k ++ v).

    Local Notation others := (filter (fun y => negb (y =? x)) A).

    Lemma ow_xA : In x A.
    Proof. exact (proj1 (cut_at d A L x Lb Lr I EL)). Qed.

    Lemma ow_bounds : x < len nd /\ x + 2 < len (upd nd x (len kv)) /\ len nd2 = len nd.
    Proof.
      destruct (inv_node_A c tmax d A L I x ow_xA) as (H1 & H2 & H3 & H4 & H5).
      assert (x < len nd) by lia. split; [exact H|]. rewrite !len_upd; try lia. rewrite len_upd; lia.
    Qed.

    Lemma ow_rd s : rd nd2 s = if s =? x + 2 then len v else if s =? x then len kv else rd nd s.
    Proof.
      destruct ow_bounds as (B1 & B2 & B3).
      rewrite rd_upd by exact B2. rewrite rd_upd by exact B1. reflexivity.
    Qed.

    (* only the cells 0 and 2 of the record of x change *)
    Lemma ow_other_cell y a :
      inh A y -> a < 4 + rech tmax nd y -> (y <> x \/ (a <> 0 /\ a <> 2)) -> rd nd2 (y + a) = rd nd (y + a).
    Proof.
      intros Hy Ha Hne. rewrite ow_rd.
      assert (Hxi : inh A x) by (right; exact ow_xA).
      destruct (inv_node_A c tmax d A L I x ow_xA) as (H1 & H2 & H3 & H4 & H5).
      pose proof (rech_node c tmax d A L I x ow_xA) as Hrx.
      destruct (N.eq_dec (y + a) (x + 2)) as [E|E].
      - destruct (slot_distinct c tmax d A L I y x a 2 Hy Hxi Ha); lia.
      - replace (y + a =? x + 2) with false by lia.
        destruct (N.eq_dec (y + a) x) as [E'|E'].
        + destruct (slot_distinct c tmax d A L I y x a 0 Hy Hxi Ha); lia.
        + replace (y + a =? x) with false by lia. reflexivity.
    Qed.

    Lemma ow_hgtA y : In y A -> hgt nd2 y = hgt nd y.
    Proof.
      intros Hy. unfold hgt. apply ow_other_cell; [right; exact Hy| |right; lia].
      rewrite (rech_node c tmax d A L I y Hy).
      destruct (inv_node_A c tmax d A L I y Hy) as (H1 & H2 & H3 & H4 & H5). lia.
    Qed.

    Lemma ow_nx y i : inh A y -> i < rech tmax nd y -> nx nd2 y i = nx nd y i.
    Proof.
      intros Hy Hi. unfold nx. replace (y + 4 + i) with (y + (4 + i)) by lia.
      apply ow_other_cell; [exact Hy|lia|right; lia].
    Qed.

    Lemma ow_others y : In y A -> y <> x -> In y others.
    Proof. intros Hy Hne. apply filter_In. split; [exact Hy|lia]. Qed.

    Lemma ow_nodes : Forall (node_ok tmax nd kv (maxHeight d)) others.
    Proof.
      apply Forall_forall. intros z Hz. apply filter_In in Hz as (Hz & _). exact (inv_node_A c tmax d A L I z Hz).
    Qed.

    Lemma ow_same_fields : same_fields nd nd2 others.
    Proof.
      intros y Hy. apply filter_In in Hy as (Hy & Hne).
      assert (Hyx : y <> x) by lia.
      assert (Hi : inh A y) by (right; exact Hy).
      assert (Hf : forall f, f < 4 -> rd nd2 (y + f) = rd nd (y + f)).
      { intros f Hf. apply ow_other_cell; [exact Hi|lia|left; exact Hyx]. }
      pose proof (Hf 0) as H0. rewrite N.add_0_r in H0.
      repeat split; [apply H0|apply Hf|apply Hf|apply ow_hgtA; exact Hy]; lia.
    Qed.

    Lemma ow_key_x : keyof nd kv x = k.
    Proof. apply (cmp_eq c cok). exact Hx. Qed.

    Lemma ow_kl : rd nd (x + 1) = len k.
    Proof.
      destruct (inv_node_A c tmax d A L I x ow_xA) as (H1 & H2 & H3 & H4 & H5).
      rewrite <- ow_key_x. unfold keyof. rewrite sl_len; lia.
    Qed.

    Lemma ow_rd_x : rd nd2 x = len kv /\ rd nd2 (x + 1) = len k /\ rd nd2 (x + 2) = len v.
    Proof.
      rewrite !ow_rd.
      replace (x =? x + 2) with false by lia. rewrite !N.eqb_refl.
      replace (x + 1 =? x + 2) with false by lia. replace (x + 1 =? x) with false by lia.
      rewrite ow_kl. auto.
    Qed.

    Lemma ow_kvof_x : kvof nd2 kv' x = (k, v).
    Proof.
      destruct ow_rd_x as (R0 & R1 & R2).
      unfold kvof, keyof, valof. rewrite R0, R1, R2. now rewrite sl_app_mid, sl_app_end.
    Qed.

    Lemma ow_kvof_other y : In y A -> y <> x -> kvof nd2 kv' y = kvof nd kv y.
    Proof.
      intros Hy Hne.
      exact (kvof_same tmax nd nd2 kv (k ++ v) (maxHeight d) _ ow_nodes ow_same_fields y (ow_others y Hy Hne)).
    Qed.

    Lemma ow_keyof y : In y A -> keyof nd2 kv' y = keyof nd kv y.
    Proof.
      intros Hy. destruct (N.eq_dec y x) as [->|Hne].
      - pose proof ow_kvof_x as E. unfold kvof in E. rewrite ow_key_x. congruence.
      - pose proof (ow_kvof_other y Hy Hne) as E. unfold kvof in E. congruence.
    Qed.

    Lemma ow_inv :
      Inv c tmax {| kvData := kv'; nodeData := nd2; maxHeight := maxHeight d; nEnt := nEnt d;
                    kvSize := (kvSize d + (Z.of_N (len v) - Z.of_N (rd nd (x + 2))))%Z |} A L.
    Proof.
      pose proof (inv_head _ _ _ _ _ I) as Hhead.
      destruct (inv_mh _ _ _ _ _ I) as (Hmh1 & Hmh2).
      pose proof (inv_sub _ _ _ _ _ I) as Hsub.
      destruct ow_bounds as (B1 & B2 & B3).
      destruct (cut_at d A L x Lb Lr I EL) as (_ & Nb & Nr).
      destruct ow_rd_x as (R0 & R1 & R2).
      constructor; cbn [nodeData kvData maxHeight nEnt kvSize].
      - lia.
      - lia.
      - apply Forall_forall. intros y Hy.
        destruct (N.eq_dec y x) as [->|Hne].
        + destruct (inv_node_A c tmax d A L I x Hy) as (H1 & H2 & H3 & H4 & H5).
          unfold node_ok. rewrite ow_hgtA by exact Hy. rewrite R0, R1, R2, !len_app. repeat split; lia.
        + apply (node_ok_same tmax nd nd2 kv (k ++ v) (maxHeight d) _ ow_nodes ow_same_fields); try lia.
          exact (ow_others y Hy Hne).
      - intros y z Hy Hz Hlt. rewrite ow_hgtA by exact Hy. apply (inv_disj _ _ _ _ _ I); auto.
      - exact Hsub.
      - pose proof (inv_sorted _ _ _ _ _ I) as HS. revert HS. apply sorted_ext.
        intros a b Ha Hb'. rewrite !ow_keyof by (apply Hsub; assumption). auto.
      - intros i Hi.
        rewrite (lvl_ext nd nd2 i L).
        2:{ intros y Hy. apply ow_hgtA. apply Hsub. exact Hy. }
        apply (path_ext nd nd2 i 0 _ 0); [|exact (inv_chain _ _ _ _ _ I i Hi)].
        intros u [<-|Hu].
        + apply ow_nx; [left; reflexivity|]. unfold rech. rewrite N.eqb_refl. exact Hi.
        + apply lvl_incl in Hu as (Hu1 & Hu2). apply Hsub in Hu1.
          apply ow_nx; [right; exact Hu1|]. rewrite (rech_node c tmax d A L I u Hu1). exact Hu2.
      - apply (inv_n _ _ _ _ _ I).
      - rewrite (inv_size _ _ _ _ _ I), EL, !sum_kv_app. cbn [sum_kv].
        assert (Hoth : forall l, incl l L -> ~ In x l -> incl l others).
        { intros l Hl Hn y Hy. apply ow_others; [exact (Hsub y (Hl y Hy))|]. intros ->. exact (Hn Hy). }
        rewrite (sum_kv_same nd nd2 _ ow_same_fields Lb).
        2:{ apply Hoth; [|exact Nb]. rewrite EL. apply incl_appl. apply incl_refl. }
        rewrite (sum_kv_same nd nd2 _ ow_same_fields Lr).
        2:{ apply Hoth; [|exact Nr]. rewrite EL. apply incl_appr. apply incl_tl. apply incl_refl. }
        rewrite R1, R2, ow_kl. lia.
    Qed.

    Lemma ow_abs :
      map (kvof nd2 kv') L = map (kvof nd kv) Lb ++ (k, v) :: map (kvof nd kv) Lr.
    Proof.
      pose proof (inv_sub _ _ _ _ _ I) as Hsub. rewrite EL in Hsub.
      destruct (cut_at d A L x Lb Lr I EL) as (_ & Nb & Nr).
      rewrite EL, map_app. cbn [map]. rewrite ow_kvof_x. f_equal; [|f_equal].
      - apply map_ext_in. intros y Hy. apply ow_kvof_other.
        + apply Hsub. apply in_or_app. left. exact Hy.
        + intros ->. exact (Nb Hy).
      - apply map_ext_in. intros y Hy. apply ow_kvof_other.
        + apply Hsub. apply in_or_app. right. right. exact Hy.
        + intros ->. exact (Nr Hy).
    Qed.

    Lemma put_overwrite_run fuel h :
      Forall (gek c d k) (x :: Lr) ->
      (length L + N.to_nat (maxHeight d) <= fuel)%nat ->
      mdb_put c p fuel d k v h =
        Ok {| kvData := kv'; nodeData := nd2; maxHeight := maxHeight d; nEnt := nEnt d;
              kvSize := (kvSize d + (Z.of_N (len v) - Z.of_N (rd nd (x + 2))))%Z |}.
    Proof.
      intros Hr Hfuel.
      destruct (findGE_ok c cok p pok d A L I k true Lb (x :: Lr) fuel EL Hb Hr Hfuel) as (pn & E & Hlpn & Hpn).
      unfold mdb_put. rewrite E. cbn [bind hd exact_of]. rewrite Hx. cbn [is_eq].
      destruct ow_bounds as (B1 & B2 & B3).
      rewrite (aset_ok nd x (len kv) B1). cbn [bind]. rewrite (Eval p pok).
      rewrite (aget_ok _ (x + 2) B2). cbn [bind].
      rewrite (aset_ok _ (x + 2) (len v) B2). cbn [bind].
      rewrite rd_upd_other by lia. reflexivity.
    Qed.
  End Overwrite.
End Put.
