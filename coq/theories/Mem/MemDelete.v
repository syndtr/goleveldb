(* Mem/MemDelete.v — Delete on the array model: what the unlink loop does to nodeData; Delete of a
   present key preserves the representation invariant, removes exactly that node from every
   level and leaves the unlinked node's own links as they were. *)
From GL Require Import Mem.MemDB Mem.ArrayLemmas Mem.ListLemmas Mem.MemInv Mem.MemFrame Mem.MemFind
  Mem.MemPut.
From Coq Require Import Lia.
Open Scope N_scope.

Section Delete.
  Variable c : comparer.
  Hypothesis cok : comparer_ok c.
  Variable p : mparams.
  Hypothesis pok : mparams_ok p.

  Local Notation tmax := (tMaxHeight p).

  Lemma del_unlink_spec (pn : list N) :
    forall cnt i (nd : list N),
      i + N.of_nat cnt <= len pn ->
      (forall l, i <= l < i + N.of_nat cnt ->
                 rd pn l + 4 + l < len nd /\ rd nd (rd pn l + 4 + l) + 4 + l < len nd) ->
      (forall l l', i <= l < i + N.of_nat cnt -> i <= l' < i + N.of_nat cnt -> l <> l' ->
                    rd pn l + l <> rd pn l' + l' /\ rd nd (rd pn l + 4 + l) + l <> rd pn l' + l') ->
      exists nd',
        del_unlink p cnt i pn nd = Ok nd' /\
        len nd' = len nd /\
        (forall s, (forall l, i <= l < i + N.of_nat cnt -> s <> rd pn l + 4 + l) -> rd nd' s = rd nd s) /\
        (forall l, i <= l < i + N.of_nat cnt ->
                   rd nd' (rd pn l + 4 + l) = rd nd (rd nd (rd pn l + 4 + l) + 4 + l)).
  Proof.
    induction cnt as [|cnt IH]; intros i nd Hpn Hin Hdist.
    - exists nd. cbn [del_unlink]. split; [reflexivity|]. split; [reflexivity|]. split; [auto|]. intros l Hl. lia.
    - cbn [del_unlink]. rewrite (Enext p pok).
      rewrite (aget_ok pn i) by lia. cbn [bind].
      set (m := rd pn i + 4 + i).
      destruct (Hin i) as (Hm & Ht); [lia|]. fold m in Hm, Ht.
      rewrite (aget_ok nd m) by exact Hm. cbn [bind].
      rewrite (aget_ok nd (rd nd m + 4 + i)) by exact Ht. cbn [bind].
      rewrite (aset_ok nd m _ Hm). cbn [bind].
      set (v := rd nd (rd nd m + 4 + i)).
      set (nd2 := upd nd m v).
      assert (Hl2 : len nd2 = len nd) by (unfold nd2; apply len_upd; exact Hm).
      assert (Hsame : forall l, i + 1 <= l < i + 1 + N.of_nat cnt -> rd nd2 (rd pn l + 4 + l) = rd nd (rd pn l + 4 + l)).
      { intros l Hl. unfold nd2. apply rd_upd_other; [exact Hm|]. unfold m.
        destruct (Hdist l i); lia. }
      destruct (IH (i + 1) nd2) as (nd' & E & Hl' & Hun & Hhit).
      + lia.
      + intros l Hl. rewrite Hl2, Hsame by exact Hl. apply Hin. lia.
      + intros l l' Hl Hl' Hne. rewrite Hsame by exact Hl. apply Hdist; lia.
      + exists nd'. split; [exact E|]. split; [lia|]. split.
        * intros s Hne. rewrite Hun.
          -- unfold nd2. apply rd_upd_other; [exact Hm|]. apply Hne. lia.
          -- intros l Hl. apply Hne. lia.
        * intros l Hl. destruct (N.eq_dec l i) as [->|Hne].
          -- fold m. rewrite Hun.
             ++ unfold nd2. apply rd_upd_same. exact Hm.
             ++ intros l Hl3. unfold m. destruct (Hdist i l); lia.
          -- rewrite Hhit by lia. rewrite Hsame by lia.
             unfold nd2. apply rd_upd_other; [exact Hm|]. unfold m.
             destruct (Hdist l i); lia.
  Qed.

  Section WithInv.
    Variables (d : db) (A L : list N).
    Hypothesis I : Inv c tmax d A L.
    Local Notation nd := (nodeData d).
    Local Notation kv := (kvData d).
    Variables (k : bytes) (x : N) (Lb Lr : list N).
    Hypothesis EL : L = Lb ++ x :: Lr.
    Hypothesis Hb : Forall (ltk c d k) Lb.
    Hypothesis Hx : cmp c (keyof nd kv x) k = Eq.

    Local Notation q := (qof d Lb).
    Local Notation h := (hgt nd x).

    Lemma del_xA : In x A.
    Proof. exact (proj1 (cut_at c cok p d A L x Lb Lr I EL)). Qed.

    Lemma del_xok : node_ok tmax nd kv (maxHeight d) x.
    Proof. exact (inv_node_A c tmax d A L I x del_xA). Qed.

    Lemma del_hle : h <= tmax.
    Proof. destruct del_xok as (_ & _ & H3 & _). destruct (inv_mh _ _ _ _ _ I). lia. Qed.

    (* on every level of x, the node before it points to it *)
    Lemma del_pred_points l : l < h -> nx nd (q l) l = x.
    Proof.
      intros Hl. pose proof del_hle.
      pose proof (inv_chain _ _ _ _ _ I l ltac:(lia)) as Hc.
      rewrite EL, lvl_app in Hc. unfold lvl at 2 in Hc. cbn [filter] in Hc.
      replace (l <? hgt nd x) with true in Hc by lia.
      apply path_app_cons in Hc as (Hc & _). apply path_last in Hc. exact Hc.
    Qed.

    Lemma del_lvl_old l :
      lvl nd l L = lvl nd l Lb ++ (if l <? h then [x] else []) ++ lvl nd l Lr.
    Proof.
      rewrite EL, lvl_app. unfold lvl at 2. cbn [filter]. destruct (l <? hgt nd x); reflexivity.
    Qed.

    (* what nodeData looks like after the unlink loop *)
    Definition del_shape (nd' : list N) : Prop :=
      len nd' = len nd /\
      (forall l, l < h -> rd nd' (q l + 4 + l) = nx nd x l) /\
      (forall s, (forall l, l < h -> s <> q l + 4 + l) -> rd nd' s = rd nd s).

    Section Shape.
      Variable nd' : list N.
      Hypothesis S : del_shape nd'.

      Lemma del_relinked : relinked nd nd' h q (nx nd x).
      Proof. destruct S as (_ & S2 & S3). split; [exact S2|]. intros s _. apply S3. Qed.

      Lemma del_same_fields : same_fields nd nd' A.
      Proof. exact (relink_same_fields c p d A L I Lb (x :: Lr) EL nd' h _ del_hle del_relinked). Qed.

      Lemma del_nx y i :
        inh A y -> i < rech tmax nd y ->
        nx nd' y i = if (i <? h) && (y =? q i) then nx nd x i else nx nd y i.
      Proof. exact (relink_nx c p d A L I Lb (x :: Lr) EL nd' h _ del_hle del_relinked y i). Qed.

      (* the unlinked node keeps its own links *)
      Lemma del_nx_x i : i < h -> nx nd' x i = nx nd x i.
      Proof using cok pok I EL S.
        exact (relink_after c cok p d A L I Lb (x :: Lr) EL nd' h _ del_hle del_relinked x i (or_introl eq_refl)).
      Qed.

      Lemma del_kvof y : In y A -> kvof nd' kv y = kvof nd kv y.
      Proof.
        intros Hy.
        pose proof (kvof_same tmax nd nd' kv [] (maxHeight d) A (inv_nodes _ _ _ _ _ I) del_same_fields y Hy) as H.
        rewrite app_nil_r in H. exact H.
      Qed.

      Lemma del_keyof y : In y A -> keyof nd' kv y = keyof nd kv y.
      Proof. intros Hy. pose proof (del_kvof y Hy) as E. unfold kvof in E. congruence. Qed.

      Lemma del_inv :
        Inv c tmax {| kvData := kv; nodeData := nd'; maxHeight := maxHeight d; nEnt := (nEnt d - 1)%Z;
                      kvSize := (kvSize d - (Z.of_N (rd nd (x + 1)) + Z.of_N (rd nd (x + 2))))%Z |}
            A (Lb ++ Lr).
      Proof.
        pose proof S as (S1 & S2 & S3).
        pose proof (inv_head _ _ _ _ _ I) as Hhead.
        destruct (inv_mh _ _ _ _ _ I) as (Hmh1 & Hmh2).
        pose proof (inv_nodes _ _ _ _ _ I) as Hnodes.
        destruct (cut_incl c p d A L I Lb (x :: Lr) EL) as (HLbA & HLrA).
        apply incl_cons_inv in HLrA as (_ & HLrA).
        assert (HLA : incl (Lb ++ Lr) A) by (apply incl_app; assumption).
        constructor; cbn [nodeData kvData maxHeight nEnt kvSize].
        - lia.
        - lia.
        - apply Forall_forall. intros y Hy.
          pose proof (node_ok_same tmax nd nd' kv [] (maxHeight d) A Hnodes del_same_fields (maxHeight d) y) as H.
          rewrite app_nil_r in H. apply H; [lia|lia|exact Hy].
        - apply (disjoint_same nd nd' A del_same_fields). apply (inv_disj _ _ _ _ _ I).
        - exact HLA.
        - pose proof (inv_sorted _ _ _ _ _ I) as HS. rewrite EL in HS. apply sorted_remove in HS.
          revert HS. apply sorted_ext. intros a b Ha Hb'. rewrite !del_keyof by (apply HLA; assumption). auto.
        - (* chains: on the levels of x the node before it now points to what x points to *)
          intros i Hi.
          rewrite (lvl_same nd nd' A del_same_fields i (Lb ++ Lr) HLA), lvl_app.
          pose proof (inv_chain _ _ _ _ _ I i Hi) as Hc. rewrite del_lvl_old in Hc.
          pose proof (relink_before c cok p d A L I Lb (x :: Lr) EL nd' h _ del_hle del_relinked i) as Hbefore.
          pose proof (relink_suffix c cok p d A L I Lb (x :: Lr) EL nd' h _ del_hle del_relinked i) as Hsuffix.
          destruct (qof_props c p d A L I Lb (x :: Lr) EL i Hi) as (Q1 & Q2 & _).
          assert (Hq : nx nd' (q i) i = if i <? h then nx nd x i else nx nd (q i) i).
          { rewrite del_nx by assumption. now rewrite N.eqb_refl, andb_true_r. }
          destruct (i <? h) eqn:Eih; cbn [app] in Hc; apply path_app.
          + apply path_app_cons in Hc as (Hc1 & Hc2). split.
            * rewrite <- (path_hd _ _ _ _ _ Hc2). exact (Hbefore x Hi Hc1).
            * exact (Hsuffix x (q i) Lr (incl_tl x (incl_refl Lr)) Hq Hc2).
          + apply path_app in Hc as (Hc1 & Hc2). split.
            * exact (Hbefore _ Hi Hc1).
            * exact (Hsuffix (q i) (q i) Lr (incl_tl x (incl_refl Lr)) Hq Hc2).
        - rewrite (inv_n _ _ _ _ _ I), EL, !app_length. cbn [length]. lia.
        - rewrite (inv_size _ _ _ _ _ I), EL, !sum_kv_app. cbn [sum_kv].
          rewrite (sum_kv_same nd nd' A del_same_fields Lb HLbA).
          rewrite (sum_kv_same nd nd' A del_same_fields Lr HLrA). lia.
      Qed.

      Lemma del_abs :
        map (kvof nd' kv) (Lb ++ Lr) = map (kvof nd kv) Lb ++ map (kvof nd kv) Lr.
      Proof.
        destruct (cut_incl c p d A L I Lb (x :: Lr) EL) as (HLbA & HLrA).
        rewrite <- map_app. apply map_ext_in. intros y Hy. apply del_kvof.
        apply in_app_or in Hy. destruct Hy as [Hy|Hy]; [exact (HLbA y Hy)|exact (HLrA y (or_intror Hy))].
      Qed.
    End Shape.

    Lemma delete_run fuel :
      Forall (gek c d k) (x :: Lr) ->
      (length L + N.to_nat (maxHeight d) <= fuel)%nat ->
      exists nd',
        mdb_delete c p fuel d k =
          Ok ({| kvData := kv; nodeData := nd'; maxHeight := maxHeight d; nEnt := (nEnt d - 1)%Z;
                 kvSize := (kvSize d - (Z.of_N (rd nd (x + 1)) + Z.of_N (rd nd (x + 2))))%Z |}, true) /\
        del_shape nd'.
    Proof.
      intros Hr Hfuel.
      pose proof del_hle as Hhle.
      destruct del_xok as (X1 & X2 & X3 & X4 & X5).
      destruct (findGE_ok c cok p pok d A L I k true Lb (x :: Lr) fuel EL Hb Hr Hfuel) as (pn & E & Hlpn & Hpn).
      specialize (Hpn eq_refl).
      assert (Hpn' : forall j, j < tmax -> rd pn j = q j) by exact Hpn. clear Hpn. rename Hpn' into Hpn.
      assert (Hpred : forall l, l < h -> rd nd (q l + 4 + l) = x) by exact del_pred_points.
      unfold mdb_delete. rewrite E. cbn [bind hd exact_of]. rewrite Hx. cbn [is_eq negb].
      rewrite (Ehgt p pok). rewrite (aget_ok nd (x + 3)) by lia. cbn [bind].
      change (rd nd (x + 3)) with h.
      replace (tMaxHeight p <? h) with false by lia.
      destruct (del_unlink_spec pn (N.to_nat h) 0 nd) as (nd' & E' & Hl' & Hun & Hhit).
      - lia.
      - intros l Hl. rewrite Hpn, Hpred by lia.
        pose proof (qof_slot_bound c p d A L I Lb (x :: Lr) EL l). lia.
      - intros l l' Hl Hl' Hne. rewrite !Hpn, Hpred by lia. split.
        + apply (qof_slots_apart c p d A L I Lb (x :: Lr) EL); lia.
        + intros Heq. destruct (qof_props c p d A L I Lb (x :: Lr) EL l') as (Q1 & Q2 & _); [lia|].
          destruct (slot_distinct c tmax d A L I x (q l') (4 + l) (4 + l') (or_intror del_xA) Q1); try lia.
          rewrite (rech_node c tmax d A L I x del_xA). lia.
      - rewrite E'. cbn [bind].
        assert (Hsh : del_shape nd').
        { split; [exact Hl'|]. split.
          - intros l Hl. rewrite <- (Hpn l) by lia. rewrite Hhit by lia. rewrite Hpn, Hpred by lia. reflexivity.
          - intros s Hne. apply Hun. intros l Hl. rewrite Hpn by lia. apply Hne. lia. }
        destruct (del_same_fields nd' Hsh x del_xA) as (_ & F1 & F2 & _).
        rewrite (Ekey p pok), (Eval p pok).
        rewrite (aget_ok nd' (x + 1)) by lia. cbn [bind].
        rewrite (aget_ok nd' (x + 2)) by lia. cbn [bind].
        rewrite F1, F2. exists nd'. split; [reflexivity|exact Hsh].
    Qed.
  End WithInv.
End Delete.
