(* Mem/MemOps.v — every DB operation of the array model against the reference map, under the
   representation invariant: Put, Delete, Get, Find, Contains, Len, Size, used bytes, Reset, New.
   rep d A L m used: the arrays represent the sorted map m. *)
From GL Require Import Base.OrderProofs Mem.MemSpec Mem.ArrayLemmas Mem.ListLemmas Mem.MemInv Mem.MemFind
  Mem.MemSpecProofs Mem.MemPut Mem.MemDelete.
From Coq Require Import Lia.
Open Scope N_scope.

Section Ops.
  Variable c : comparer.
  Hypothesis cok : comparer_ok c.
  Variable p : mparams.
  Hypothesis pok : mparams_ok p.

  Local Notation tmax := (tMaxHeight p).

  Definition rep (d : db) (A L : list N) (m : smap) (used : N) : Prop :=
    Inv c tmax d A L /\ abs d L = m /\ len (kvData d) = used.

  Definition fuel_ok (d : db) (L : list N) (fuel : nat) : Prop :=
    (length L + N.to_nat (maxHeight d) <= fuel)%nat.

  Lemma op_fuel_ok d A L : Inv c tmax d A L -> fuel_ok d L (op_fuel d).
  Proof.
    intros I. unfold fuel_ok, op_fuel. rewrite (inv_n _ _ _ _ _ I). lia.
  Qed.

  Lemma ltk_map d k l :
    Forall (ltk c d k) l -> Forall (e_lt c k) (map (kvof (nodeData d) (kvData d)) l).
  Proof. intros H. apply Forall_map. exact H. Qed.

  Lemma gek_map d k l :
    Forall (gek c d k) l -> Forall (e_ge c k) (map (kvof (nodeData d) (kvData d)) l).
  Proof. intros H. apply Forall_map. exact H. Qed.

  (* in a sorted cut whose head equals k, or whose head is above k, the rest is above k *)
  Lemma tail_gt d k x Lr :
    key_sorted c (nodeData d) (kvData d) (x :: Lr) ->
    cmp c (keyof (nodeData d) (kvData d) x) k <> Lt ->
    Forall (fun y => lt c k (keyof (nodeData d) (kvData d) y)) Lr.
  Proof.
    intros (H1 & _) Hx. eapply Forall_impl; [|exact H1]. intros y Hy. cbn in Hy.
    destruct (cmp c (keyof (nodeData d) (kvData d) x) k) eqn:E; [| congruence |].
    - apply (cmp_eq c cok) in E. now rewrite <- E.
    - apply (cmp_gt_lt c cok) in E. exact (OrderProofs.lt_trans c cok _ _ _ E Hy).
  Qed.

  Lemma all_gt_of_inexact d k Lr :
    key_sorted c (nodeData d) (kvData d) Lr -> Forall (gek c d k) Lr -> exact_of c d k Lr = false ->
    Forall (fun y => lt c k (keyof (nodeData d) (kvData d) y)) Lr.
  Proof.
    intros HS HG Hex. destruct Lr as [|x Lr]; [constructor|].
    inversion HG; subst. cbn in Hex. constructor.
    - unfold gek in H1. destruct (cmp c (keyof (nodeData d) (kvData d) x) k) eqn:E; cbn in Hex; try congruence.
      apply (cmp_gt_lt c cok). exact E.
    - apply (tail_gt d k x Lr HS H1).
  Qed.

  Lemma exact_head d k Lr :
    exact_of c d k Lr = true -> exists x Lr', Lr = x :: Lr' /\ cmp c (keyof (nodeData d) (kvData d) x) k = Eq.
  Proof.
    destruct Lr as [|x Lr']; cbn; [discriminate|]. intros H. exists x, Lr'. split; [reflexivity|].
    destruct (cmp c (keyof (nodeData d) (kvData d) x) k); cbn in H; congruence.
  Qed.

  Lemma locate d A L k :
    Inv c tmax d A L ->
    exists Lb Lr,
      L = Lb ++ Lr /\ Forall (ltk c d k) Lb /\ Forall (gek c d k) Lr /\
      key_sorted c (nodeData d) (kvData d) Lr /\
      abs d L = map (kvof (nodeData d) (kvData d)) Lb ++ map (kvof (nodeData d) (kvData d)) Lr /\
      (forall prev, exists pn,
         findGE c p (op_fuel d) d k prev (prev_init p) = Ok (hd 0 Lr, exact_of c d k Lr, pn)) /\
      findLT c p (op_fuel d) d k = Ok (last Lb 0).
  Proof.
    intros I. pose proof (op_fuel_ok d A L I) as Hfuel.
    destruct (split_at c cok d L k (inv_sorted _ _ _ _ _ I)) as (Lb & Lr & EL & Hb & Hr).
    exists Lb, Lr. split; [exact EL|]. split; [exact Hb|]. split; [exact Hr|].
    split; [pose proof (inv_sorted _ _ _ _ _ I) as HS; rewrite EL in HS; apply sorted_app in HS; tauto|].
    split; [unfold abs; rewrite EL; apply map_app|]. split.
    - intros prev.
      destruct (findGE_ok c cok p pok d A L I k prev Lb Lr (op_fuel d) EL Hb Hr Hfuel) as (pn & E & _). eauto.
    - exact (findLT_ok c p pok d A L I k Lb Lr (op_fuel d) EL Hb Hr Hfuel).
  Qed.

  Lemma get_at_cut d k Lb Lr :
    key_sorted c (nodeData d) (kvData d) Lr -> Forall (ltk c d k) Lb -> Forall (gek c d k) Lr ->
    s_get c k (map (kvof (nodeData d) (kvData d)) Lb ++ map (kvof (nodeData d) (kvData d)) Lr) =
      if exact_of c d k Lr then Some (valof (nodeData d) (kvData d) (hd 0 Lr)) else None.
  Proof.
    intros HS Hb Hr. rewrite (s_get_skip c) by (apply ltk_map; exact Hb).
    destruct (exact_of c d k Lr) eqn:Hex.
    - destruct (exact_head d k Lr Hex) as (x & Lr' & -> & Hx). cbn [hd map].
      exact (s_get_hit_e c (kvof (nodeData d) (kvData d) x) _ k Hx).
    - apply (s_get_miss c cok). apply Forall_map. apply all_gt_of_inexact; assumption.
  Qed.

  Lemma put_ok d A L m used k v h :
    rep d A L m used -> 1 <= h -> h <= tmax ->
    exists d' A' L',
      mdb_put c p (op_fuel d) d k v h = Ok d' /\
      rep d' A' L' (s_insert c k v m) (used + len k + len v) /\
      (forall y, In y L -> In y L' /\ keyof (nodeData d') (kvData d') y = keyof (nodeData d) (kvData d) y).
  Proof.
    intros (I & Eabs & Eused) Hh1 Hh2.
    pose proof (op_fuel_ok d A L I) as Hfuel.
    destruct (locate d A L k I) as (Lb & Lr & EL & Hb & Hr & HSr & Em & _).
    rewrite Em in Eabs. subst m.
    destruct (exact_of c d k Lr) eqn:Hex.
    - (* overwrite *)
      destruct (exact_head d k Lr Hex) as (x & Lr' & -> & Hx).
      pose proof (put_overwrite_run c cok p pok d A L I k v x Lb Lr' EL Hb Hx (op_fuel d) h Hr Hfuel) as E.
      eexists _, A, L. split; [exact E|]. split.
      + split; [apply (ow_inv c cok p d A L I k v x Lb Lr' EL Hx)|]. split.
        * unfold abs. cbn [nodeData kvData].
          rewrite (ow_abs c cok p d A L I k v x Lb Lr' EL Hx). cbn [map].
          symmetry. apply (s_insert_over c cok).
          -- apply ltk_map. exact Hb.
          -- cbn. rewrite (cmp_opp c cok). rewrite Hx. reflexivity.
        * cbn [kvData]. rewrite !len_app. lia.
      + intros y Hy. split; [exact Hy|]. cbn [nodeData kvData].
        apply (ow_keyof c cok p d A L I k v x Lb Lr' EL Hx). apply (inv_sub _ _ _ _ _ I). exact Hy.
    - (* insert *)
      assert (Hgt : forall y, In y Lr -> lt c k (keyof (nodeData d) (kvData d) y)).
      { apply Forall_forall. apply all_gt_of_inexact; assumption. }
      destruct (put_insert_run c cok p pok d A L I Lb Lr EL k v h Hb Hr (conj Hh1 Hh2) (op_fuel d) Hex Hfuel)
        as (nd' & E & S).
      eexists _, (A ++ [len (nodeData d)]), (Lb ++ len (nodeData d) :: Lr). split; [exact E|]. split.
      + split; [apply (ins_inv c cok p d A L I Lb Lr EL k v h Hb (conj Hh1 Hh2) nd' S Hgt)|]. split.
        * unfold abs. cbn [nodeData kvData].
          rewrite (ins_abs c p d A L I Lb Lr EL k v h (conj Hh1 Hh2) nd' S).
          symmetry. apply (s_insert_new c cok).
          -- apply ltk_map. exact Hb.
          -- apply Forall_map. apply Forall_forall. intros y Hy. exact (Hgt y Hy).
        * cbn [kvData]. rewrite !len_app. lia.
      + intros y Hy. split.
        * rewrite EL in Hy. apply in_app_or in Hy. apply in_or_app. destruct Hy; [left; auto|right; right; auto].
        * cbn [nodeData kvData].
          apply (ins_keyof c p d A L I Lb Lr EL k v h (conj Hh1 Hh2) nd' S). apply (inv_sub _ _ _ _ _ I). exact Hy.
  Qed.

  Lemma delete_ok d A L m used k :
    rep d A L m used ->
    exists d' L' found,
      mdb_delete c p (op_fuel d) d k = Ok (d', found) /\
      match s_get c k m with
      | Some _ =>
          found = true /\ rep d' A L' (s_remove c k m) used /\
          (forall y, In y L -> keyof (nodeData d) (kvData d) y <> k ->
                     In y L' /\ keyof (nodeData d') (kvData d') y = keyof (nodeData d) (kvData d) y)
      | None => found = false /\ d' = d /\ L' = L
      end.
  Proof.
    intros (I & Eabs & Eused).
    pose proof (op_fuel_ok d A L I) as Hfuel.
    destruct (locate d A L k I) as (Lb & Lr & EL & Hb & Hr & HSr & Em & HGE & _).
    rewrite Eabs in Em. rewrite Em, (get_at_cut d k Lb Lr HSr Hb Hr).
    destruct (exact_of c d k Lr) eqn:Hex.
    - destruct (exact_head d k Lr Hex) as (x & Lr' & -> & Hx).
      destruct (delete_run c cok p pok d A L I k x Lb Lr' EL Hb Hx (op_fuel d) Hr Hfuel) as (nd' & E & S).
      pose proof (tail_gt d k x Lr' HSr (Forall_inv Hr)) as Hgt.
      eexists _, (Lb ++ Lr'), true. split; [exact E|].
      split; [reflexivity|]. split.
      + split; [apply (del_inv c cok p d A L I x Lb Lr' EL nd' S)|]. split.
        * unfold abs. cbn [nodeData kvData].
          rewrite (del_abs c cok p d A L I x Lb Lr' EL nd' S).
          symmetry. apply (s_remove_split c cok).
          -- apply ltk_map. exact Hb.
          -- exact Hx.
          -- apply Forall_map. exact Hgt.
        * exact Eused.
      + intros y Hy Hne. cbn [nodeData kvData].
        assert (Hyx : y <> x).
        { intros ->. apply Hne. apply (cmp_eq c cok). exact Hx. }
        split.
        * rewrite EL in Hy. apply in_app_or in Hy. apply in_or_app.
          destruct Hy as [Hy|[Hy|Hy]]; [left; auto|congruence|right; auto].
        * apply (del_keyof c cok p d A L I x Lb Lr' EL nd' S). apply (inv_sub _ _ _ _ _ I). exact Hy.
    - destruct (HGE true) as (pn & E).
      exists d, L, false. split; [|auto].
      unfold mdb_delete. rewrite E. reflexivity.
  Qed.

  Lemma read_node_ok d A L x :
    Inv c tmax d A L -> In x L ->
    let nd := nodeData d in
    aget nd x = Ok (rd nd x) /\ aget nd (x + 1) = Ok (rd nd (x + 1)) /\ aget nd (x + 2) = Ok (rd nd (x + 2)) /\
    bslice (kvData d) (rd nd x) (rd nd x + rd nd (x + 1)) = Ok (keyof nd (kvData d) x) /\
    bslice (kvData d) (rd nd x + rd nd (x + 1)) (rd nd x + rd nd (x + 1) + rd nd (x + 2)) = Ok (valof nd (kvData d) x).
  Proof.
    intros I Hx. cbn zeta.
    destruct (inv_node_L c tmax d A L I x Hx) as (H1 & H2 & H3 & H4 & H5).
    repeat split; try (apply aget_ok; lia); apply bslice_ok; lia.
  Qed.

  Lemma get_ok d A L m used k :
    rep d A L m used -> mdb_get c p (op_fuel d) d k = Ok (s_get c k m).
  Proof.
    intros (I & Eabs & Eused).
    destruct (locate d A L k I) as (Lb & Lr & EL & Hb & Hr & HSr & Em & HGE & _).
    destruct (HGE false) as (pn & E).
    unfold mdb_get. rewrite E. cbn [bind].
    rewrite <- Eabs, Em, (get_at_cut d k Lb Lr HSr Hb Hr).
    destruct (exact_of c d k Lr) eqn:Hex; [|reflexivity].
    destruct (exact_head d k Lr Hex) as (x & Lr' & -> & Hx). cbn [hd].
    assert (HxL : In x L) by (rewrite EL; apply in_elt).
    destruct (read_node_ok d A L x I HxL) as (R0 & R1 & R2 & _ & RV).
    rewrite (Ekey p pok), (Eval p pok). rewrite R0. cbn [bind]. rewrite R1. cbn [bind]. rewrite R2. cbn [bind].
    rewrite RV. reflexivity.
  Qed.

  Lemma contains_ok d A L m used k :
    rep d A L m used ->
    mdb_contains c p (op_fuel d) d k = Ok (match s_get c k m with Some _ => true | None => false end).
  Proof.
    intros (I & Eabs & Eused).
    destruct (locate d A L k I) as (Lb & Lr & EL & Hb & Hr & HSr & Em & HGE & _).
    destruct (HGE false) as (pn & E).
    unfold mdb_contains. rewrite E. cbn [bind].
    rewrite <- Eabs, Em, (get_at_cut d k Lb Lr HSr Hb Hr).
    destruct (exact_of c d k Lr); reflexivity.
  Qed.

  Lemma find_ok d A L m used k :
    rep d A L m used -> mdb_find c p (op_fuel d) d k = Ok (s_find_ge c k m).
  Proof.
    intros (I & Eabs & Eused).
    destruct (locate d A L k I) as (Lb & Lr & EL & Hb & Hr & _ & Em & HGE & _).
    destruct (HGE false) as (pn & E).
    unfold mdb_find. rewrite E. cbn [bind].
    rewrite <- Eabs, Em.
    rewrite (s_find_ge_split c) by (first [apply ltk_map; exact Hb|apply gek_map; exact Hr]).
    destruct Lr as [|x Lr']; cbn [hd map hd_error]; [reflexivity|].
    assert (HxL : In x L) by (rewrite EL; apply in_elt).
    pose proof (inv_nonzero c tmax d A L I x (inv_sub _ _ _ _ _ I x HxL)) as Hx0.
    replace (x =? 0) with false by lia.
    destruct (read_node_ok d A L x I HxL) as (R0 & R1 & R2 & RK & RV).
    rewrite (Ekey p pok), (Eval p pok). rewrite R0. cbn [bind]. rewrite R1. cbn [bind].
    rewrite RK. cbn [bind]. rewrite R2. cbn [bind]. rewrite RV. reflexivity.
  Qed.

  Lemma len_ok d A L m used : rep d A L m used -> mdb_len d = s_len m.
  Proof.
    intros (I & Eabs & _). unfold mdb_len. rewrite (inv_n _ _ _ _ _ I), <- Eabs. unfold abs.
    symmetry. apply s_len_map.
  Qed.

  Lemma size_ok d A L m used : rep d A L m used -> mdb_size d = s_size m.
  Proof.
    intros (I & Eabs & _). unfold mdb_size. rewrite (inv_size _ _ _ _ _ I), <- Eabs. unfold abs.
    pose proof (inv_node_L c tmax d A L I) as HL. clear Eabs.
    induction L as [|x L IH] in HL |- *; [reflexivity|].
    cbn [map sum_kv s_size kvof].
    destruct (HL x (or_introl eq_refl)) as (H1 & H2 & H3 & H4 & H5).
    unfold keyof at 1, valof at 1. rewrite !sl_len by lia.
    rewrite IH by (intros y Hy; apply HL; right; exact Hy).
    unfold kvof. lia.
  Qed.

  Lemma used_ok d A L m used : rep d A L m used -> mdb_used d = used.
  Proof. intros (_ & _ & E). exact E. Qed.

  Lemma reset_links_zero_prev cnt : forall i nd, reset_links p cnt i nd = zero_prev cnt (4 + i) nd.
  Proof.
    induction cnt as [|cnt IH]; intros i nd; cbn [reset_links zero_prev]; [reflexivity|].
    rewrite (Enext p pok). destruct (aset nd (4 + i) 0) as [nd'| |]; cbn [bind]; [|reflexivity|reflexivity].
    rewrite IH. f_equal. lia.
  Qed.

  Lemma empty_rep nd :
    len nd = 4 + tmax -> (forall j, j < tmax -> rd nd (4 + j) = 0) ->
    rep {| kvData := []; nodeData := nd; maxHeight := 1; nEnt := 0%Z; kvSize := 0%Z |} [] [] [] 0.
  Proof.
    intros Hl Hz. pose proof (tmax_pos p pok) as Ht. split; [|split; reflexivity].
    constructor; cbn [nodeData kvData maxHeight nEnt kvSize]; try reflexivity.
    - lia.
    - lia.
    - constructor.
    - intros x y [].
    - intros x [].
    - intros i Hi. cbn. unfold nx. replace (0 + 4 + i) with (4 + i) by lia. apply Hz. exact Hi.
  Qed.

  Lemma reset_ok d :
    4 + tmax <= len (nodeData d) ->
    exists d', mdb_reset p d = Ok d' /\ rep d' [] [] [] 0.
  Proof.
    intros Hlen. pose proof (tmax_pos p pok) as Ht.
    unfold mdb_reset. rewrite (Enext p pok), (Ekv p pok), (Ekey p pok), (Eval p pok), (Ehgt p pok).
    replace (len (nodeData d) <? 4 + tmax) with false by lia.
    set (nd0 := firstn (N.to_nat (4 + tmax)) (nodeData d)).
    assert (Hl0 : len nd0 = 4 + tmax).
    { unfold nd0. rewrite len_firstn; lia. }
    rewrite (aset_ok nd0 0 0) by lia. cbn [bind].
    rewrite (aset_ok _ 1 0) by (rewrite len_upd; lia). cbn [bind].
    rewrite (aset_ok _ 2 0) by (rewrite !len_upd; try lia; rewrite len_upd; lia). cbn [bind].
    set (nd3 := upd (upd (upd nd0 0 0) 1 0) 2 0).
    assert (Hl3 : len nd3 = 4 + tmax).
    { unfold nd3. rewrite !len_upd; try lia; rewrite !len_upd; try lia. rewrite len_upd; lia. }
    rewrite (aset_ok nd3 3 tmax) by lia. cbn [bind].
    rewrite reset_links_zero_prev.
    destruct (zero_prev_spec (N.to_nat tmax) (4 + 0) (upd nd3 3 tmax)) as (nd5 & E & Hl5 & Hz & _).
    - rewrite len_upd by lia. lia.
    - rewrite E. cbn [bind]. eexists. split; [reflexivity|]. apply empty_rep.
      + rewrite Hl5, len_upd by lia. exact Hl3.
      + intros j Hj. apply Hz. lia.
  Qed.

  Lemma new_ok : exists d, mdb_new p = Ok d /\ rep d [] [] [] 0.
  Proof.
    pose proof (tmax_pos p pok) as Ht. unfold mdb_new. rewrite (Ehgt p pok).
    rewrite aset_ok by (rewrite len_repeat; lia). cbn [bind].
    eexists. split; [reflexivity|]. apply empty_rep.
    - rewrite len_upd by (rewrite len_repeat; lia). rewrite len_repeat. lia.
    - intros j Hj. rewrite rd_upd_other by (first [rewrite len_repeat; lia|lia]). apply rd_repeat0.
  Qed.
End Ops.
