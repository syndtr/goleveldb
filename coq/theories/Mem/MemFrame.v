(* Mem/MemFrame.v — frame facts for the array model: records of distinct allocated nodes do not
   overlap, so a write to one field or link leaves every other field and link as it was; what the
   invariant's components need when nodeData changes only there and kvData only grows. *)
From GL Require Import Base.OrderProofs Mem.MemDB Mem.ArrayLemmas Mem.ListLemmas Mem.MemInv.
From Coq Require Import Lia.
Open Scope N_scope.

Section Frame.
  Variable c : comparer.
  Hypothesis cok : comparer_ok c.
  Variable tmax : N.

  (* head or allocated node, and the height of its record *)
  Definition inh (A : list N) (x : N) : Prop := x = 0 \/ In x A.
  Definition rech (nd : list N) (x : N) : N := if x =? 0 then tmax else hgt nd x.

  Lemma node_ok_in nd kv mh A :
    Forall (node_ok tmax nd kv mh) A -> forall x, In x A -> node_ok tmax nd kv mh x.
  Proof. intros Hnodes x H. exact (proj1 (Forall_forall _ _) Hnodes x H). Qed.

  (* nd' has the same header fields as nd for the nodes of A *)
  Definition same_fields (nd nd' : list N) (A : list N) : Prop :=
    forall x, In x A ->
      rd nd' x = rd nd x /\ rd nd' (x + 1) = rd nd (x + 1) /\
      rd nd' (x + 2) = rd nd (x + 2) /\ hgt nd' x = hgt nd x.

  (* what carries over when the nodes of A keep their fields and kvData only grows *)
  Section Transfer.
    Variables (nd nd' : list N) (kv extra : bytes) (mh : N) (A : list N).
    Hypothesis Hnodes : Forall (node_ok tmax nd kv mh) A.
    Hypothesis Hsame : same_fields nd nd' A.

    Lemma keyof_same x : In x A -> keyof nd' (kv ++ extra) x = keyof nd kv x.
    Proof.
      intros Hx. destruct (Hsame x Hx) as (E0 & E1 & E2 & E3).
      destruct (node_ok_in nd kv mh A Hnodes x Hx) as (H1 & H2 & H3 & H4 & H5).
      unfold keyof. rewrite E0, E1. apply sl_app1. lia.
    Qed.

    Lemma valof_same x : In x A -> valof nd' (kv ++ extra) x = valof nd kv x.
    Proof.
      intros Hx. destruct (Hsame x Hx) as (E0 & E1 & E2 & E3).
      destruct (node_ok_in nd kv mh A Hnodes x Hx) as (H1 & H2 & H3 & H4 & H5).
      unfold valof. rewrite E0, E1, E2. apply sl_app1. lia.
    Qed.

    Lemma kvof_same x : In x A -> kvof nd' (kv ++ extra) x = kvof nd kv x.
    Proof. intros Hx. unfold kvof. now rewrite keyof_same, valof_same. Qed.

    Lemma node_ok_same mh' x : len nd <= len nd' -> mh <= mh' -> In x A -> node_ok tmax nd' (kv ++ extra) mh' x.
    Proof.
      intros Hlen Hmh Hx. destruct (Hsame x Hx) as (E0 & E1 & E2 & E3).
      destruct (node_ok_in nd kv mh A Hnodes x Hx) as (H1 & H2 & H3 & H4 & H5).
      unfold node_ok. rewrite E0, E1, E2, E3, len_app. repeat split; lia.
    Qed.

    Lemma disjoint_same : disjoint nd A -> disjoint nd' A.
    Proof.
      intros H x y Hx Hy Hlt. destruct (Hsame x Hx) as (_ & _ & _ & ->). apply H; auto.
    Qed.

    Lemma lvl_same i l : incl l A -> lvl nd' i l = lvl nd i l.
    Proof. intros Hl. apply lvl_ext. intros x Hx. apply Hsame. apply Hl. exact Hx. Qed.

    Lemma key_sorted_same l : incl l A -> key_sorted c nd kv l -> key_sorted c nd' (kv ++ extra) l.
    Proof.
      intros Hl. apply sorted_ext. intros x y Hx Hy.
      rewrite !keyof_same by (apply Hl; assumption). auto.
    Qed.

    Lemma sum_kv_same l : incl l A -> sum_kv nd' l = sum_kv nd l.
    Proof.
      intros Hl. apply sum_kv_ext. intros x Hx. destruct (Hsame x (Hl x Hx)) as (_ & E1 & E2 & _).
      auto.
    Qed.
  End Transfer.

  (* nd' is nd except that, for every level l < h, link l of the record q l now holds g l *)
  Definition relinked (nd nd' : list N) (h : N) (q g : N -> N) : Prop :=
    (forall l, l < h -> rd nd' (q l + 4 + l) = g l) /\
    (forall s, s < len nd -> (forall l, l < h -> s <> q l + 4 + l) -> rd nd' s = rd nd s).

  Section WithInv.
    Variables (d : db) (A L : list N).
    Hypothesis I : Inv c tmax d A L.
    Local Notation nd := (nodeData d).

    Lemma rech_node x : In x A -> rech nd x = hgt nd x.
    Proof.
      intros Hx. unfold rech. pose proof (inv_nonzero c tmax d A L I x Hx).
      replace (x =? 0) with false by lia. reflexivity.
    Qed.

    Lemma rec_bounds x : inh A x -> x + 4 + rech nd x <= len nd /\ (x <> 0 -> 4 + tmax <= x).
    Proof.
      intros [->|Hx].
      - unfold rech. rewrite N.eqb_refl. pose proof (inv_head _ _ _ _ _ I). lia.
      - rewrite (rech_node x Hx). destruct (inv_node_A c tmax d A L I x Hx) as (H1 & _ & _ & H4 & _). lia.
    Qed.

    (* two cells of records coincide only if they are the same cell of the same record *)
    Lemma slot_distinct x y a b :
      inh A x -> inh A y -> a < 4 + rech nd x -> b < 4 + rech nd y -> x + a = y + b -> x = y /\ a = b.
    Proof.
      intros Hx Hy Ha Hb E.
      destruct (N.eq_dec x y) as [->|Hne]; [split; [reflexivity|lia]|]. exfalso.
      destruct (rec_bounds x Hx) as (_ & Bx). destruct (rec_bounds y Hy) as (_ & By).
      destruct Hx as [->|Hx], Hy as [->|Hy].
      - congruence.
      - unfold rech in Ha. rewrite N.eqb_refl in Ha. lia.
      - unfold rech in Hb. rewrite N.eqb_refl in Hb. lia.
      - rewrite (rech_node x Hx) in Ha. rewrite (rech_node y Hy) in Hb.
        destruct (N.lt_ge_cases x y) as [Hlt|Hge].
        + pose proof (inv_disj _ _ _ _ _ I x y Hx Hy Hlt). lia.
        + assert (Hlt : y < x) by lia. pose proof (inv_disj _ _ _ _ _ I y x Hy Hx Hlt). lia.
    Qed.

    Lemma slot_in_bounds x a : inh A x -> a < 4 + rech nd x -> x + a < len nd.
    Proof. intros Hx Ha. destruct (rec_bounds x Hx) as (B & _). lia. Qed.

    Section Relinked.
      Variables (nd' : list N) (h : N) (q g : N -> N).
      Hypothesis Hq : forall l, l < h -> inh A (q l) /\ l < rech nd (q l).
      Hypothesis R : relinked nd nd' h q g.

      Lemma relinked_same_fields : same_fields nd nd' A.
      Proof.
        intros x Hx. destruct (inv_node_A c tmax d A L I x Hx) as (H1 & H2 & H3 & H4 & H5).
        assert (Hf : forall f, f < 4 -> rd nd' (x + f) = rd nd (x + f)).
        { intros f Hf. apply (proj2 R); [lia|]. intros l Hl E. destruct (Hq l Hl) as (Q1 & Q2).
          destruct (slot_distinct x (q l) f (4 + l) (or_intror Hx) Q1); lia. }
        pose proof (Hf 0) as H0. rewrite N.add_0_r in H0. unfold hgt.
        repeat split; [apply H0|apply Hf|apply Hf|apply Hf]; lia.
      Qed.

      Lemma relinked_nx x i :
        inh A x -> i < rech nd x -> nx nd' x i = if (i <? h) && (x =? q i) then g i else nx nd x i.
      Proof.
        intros Hx Hi. unfold nx. destruct ((i <? h) && (x =? q i)) eqn:E.
        - assert (x = q i) by lia. subst x. apply (proj1 R). lia.
        - apply (proj2 R).
          + replace (x + 4 + i) with (x + (4 + i)) by lia. apply slot_in_bounds; [exact Hx|lia].
          + intros l Hl Heq. destruct (Hq l Hl) as (Q1 & Q2).
            destruct (slot_distinct x (q l) (4 + i) (4 + l) Hx Q1) as (E1 & E2); [lia|lia|lia|].
            assert (l = i) by lia. subst l x. lia.
      Qed.
    End Relinked.
  End WithInv.

  Lemma key_sorted_NoDup nd kv l : key_sorted c nd kv l -> NoDup l.
  Proof. apply sorted_NoDup. intros x. apply (OrderProofs.lt_irrefl c cok). Qed.
End Frame.
