(* Mem/MemFind.v — correctness of the three searches of the array model under the
   representation invariant: findGE (with and without prevNode), findLT, findLast; fuel
   n + maxHeight suffices and no array access is out of range. *)
From GL Require Import Base.OrderProofs Mem.MemDB Mem.ArrayLemmas Mem.ListLemmas Mem.MemInv.
From Coq Require Import Lia.
Open Scope N_scope.

Section Find.
  Variable c : comparer.
  Hypothesis cok : comparer_ok c.
  Variable p : mparams.
  Hypothesis pok : mparams_ok p.

  Let tmax := tMaxHeight p.
  Lemma Ekv : nKV p = 0. Proof. apply pok. Qed.
  Lemma Ekey : nKey p = 1. Proof. apply pok. Qed.
  Lemma Eval : nVal p = 2. Proof. apply pok. Qed.
  Lemma Ehgt : nHeight p = 3. Proof. apply pok. Qed.
  Lemma Enext : nNext p = 4. Proof. apply pok. Qed.
  Lemma tmax_pos : 1 <= tmax. Proof. apply pok. Qed.

  Definition ltk (d : db) (k : bytes) (x : N) : Prop := lt c (keyof (nodeData d) (kvData d) x) k.
  Definition gek (d : db) (k : bytes) (x : N) : Prop := cmp c (keyof (nodeData d) (kvData d) x) k <> Lt.

  Lemma split_at d L k :
    key_sorted c (nodeData d) (kvData d) L ->
    exists Lb Lr, L = Lb ++ Lr /\ Forall (ltk d k) Lb /\ Forall (gek d k) Lr.
  Proof.
    induction L as [|x L IH]; intros HS.
    - exists [], []. auto.
    - destruct HS as (H1 & H2).
      destruct (cmp c (keyof (nodeData d) (kvData d) x) k) eqn:E.
      + exists [], (x :: L). repeat split; auto. constructor; [unfold gek; congruence|].
        rewrite Forall_forall in *. intros y Hy. unfold gek.
        apply (cmp_eq c cok) in E. rewrite <- E.
        intros Hlt. apply (cmp_lt_gt c cok) in Hlt. specialize (H1 y Hy). unfold lt in H1. congruence.
      + destruct (IH H2) as (Lb & Lr & -> & Hb & Hr). exists (x :: Lb), Lr. repeat split; auto.
      + exists [], (x :: L). repeat split; auto. constructor; [unfold gek; congruence|].
        rewrite Forall_forall in *. intros y Hy. unfold gek. intros Hlt.
        apply (cmp_gt_lt c cok) in E.
        pose proof (OrderProofs.lt_trans c cok _ _ _ (H1 y Hy) Hlt) as H3.
        pose proof (OrderProofs.lt_trans c cok _ _ _ E H3) as H4. exact (OrderProofs.lt_irrefl c cok _ H4).
  Qed.

  Definition exact_of (d : db) (k : bytes) (Lr : list N) : bool :=
    match Lr with
    | x :: _ => is_eq (cmp c (keyof (nodeData d) (kvData d) x) k)
    | [] => false
    end.

  Lemma descend_fuel (n fuel : nat) h :
    h <> 0 -> (n + N.to_nat h < S fuel)%nat -> (n + N.to_nat (h - 1) < fuel)%nat.
  Proof. lia. Qed.

  Lemma descend_lt h b : h < b -> h - 1 < b.
  Proof. lia. Qed.

  (* findGE's prevNode array: level h is written when the search leaves it, from the top level down *)
  Lemma prev_write (prev : bool) pn h node :
    h < len pn ->
    exists pn1, (if prev then aset pn h node else Ok pn) = Ok pn1 /\ len pn1 = len pn /\
                (prev = true -> rd pn1 h = node /\ forall j, j <> h -> rd pn1 j = rd pn j).
  Proof.
    intros Hh. destruct prev.
    - exists (upd pn h node). rewrite aset_ok by exact Hh. split; [reflexivity|]. split; [apply len_upd; exact Hh|].
      intros _. split; [apply rd_upd_same; exact Hh|]. intros j Hj. apply rd_upd_other; [exact Hh|exact Hj].
    - exists pn. split; [reflexivity|]. split; [reflexivity|discriminate].
  Qed.

  Lemma prev_written (f : N -> N) pn pn1 pn' h :
    rd pn1 h = f h /\ (forall j, j <> h -> rd pn1 j = rd pn j) ->
    h <> 0 ->
    (forall j, j <= h - 1 -> rd pn' j = f j) /\ (forall j, h - 1 < j -> rd pn' j = rd pn1 j) ->
    (forall j, j <= h -> rd pn' j = f j) /\ (forall j, h < j -> rd pn' j = rd pn j).
  Proof.
    intros (R1 & R2) Hh (P1 & P2). split; intros j Hj.
    - destruct (N.eq_dec j h) as [->|Hne]; [rewrite P2 by lia; exact R1|apply P1; lia].
    - rewrite P2 by lia. apply R2. lia.
  Qed.

  Section WithInv.
    Variables (d : db) (A L : list N).
    Hypothesis I : Inv c tmax d A L.
    Local Notation nd := (nodeData d).
    Local Notation kv := (kvData d).

    Lemma key_read x :
      In x A ->
      aget nd x = Ok (rd nd x) /\ aget nd (x + 1) = Ok (rd nd (x + 1)) /\
      bslice kv (rd nd x) (rd nd x + rd nd (x + 1)) = Ok (keyof nd kv x).
    Proof.
      intros Hx. destruct (inv_node_A c tmax d A L I x Hx) as (H1 & H2 & H3 & H4 & H5).
      split; [apply aget_ok; lia|]. split; [apply aget_ok; lia|]. apply bslice_ok; lia.
    Qed.

    Lemma node_key_ok x : In x A -> node_key p d x = Ok (keyof nd kv x).
    Proof.
      intros Hx. destruct (key_read x Hx) as (R0 & R1 & RK).
      unfold node_key. rewrite Ekey, R0. cbn [bind]. rewrite R1. cbn [bind]. exact RK.
    Qed.

    Lemma lvl0_sub l : incl l L -> lvl nd 0 l = l.
    Proof.
      intros Hl. apply lvl0. apply Forall_forall. intros x Hx.
      destruct (inv_node_L c tmax d A L I x (Hl x Hx)) as (_ & H & _). exact H.
    Qed.

    Lemma lvl_hd h l : incl l L -> match lvl nd h l with [] => True | z :: _ => In z l /\ In z A /\ z <> 0 end.
    Proof.
      intros Hl. destruct (lvl nd h l) as [|z r] eqn:E; [exact Logic.I|].
      assert (Hz : In z (lvl nd h l)) by (rewrite E; left; reflexivity).
      apply lvl_incl in Hz as (Hz & _). pose proof (inv_sub _ _ _ _ _ I z (Hl z Hz)) as HzA.
      split; [exact Hz|]. split; [exact HzA|exact (inv_nonzero c tmax d A L I z HzA)].
    Qed.

    (* One step of a search standing on level h at node, the last node of the prefix Lb1 of the live
       list (the head if Lb1 is empty), with Lb2 still to pass.  Every step of the three loops below either
       shortens Lb2 or lowers h, so fuel above length Lb2 + h (at most n + maxHeight) is never used up. *)
    Lemma search_step Lb1 Lb2 Lr h node :
      L = Lb1 ++ Lb2 ++ Lr -> node = last Lb1 0 -> (Lb1 <> [] -> h < hgt nd node) -> h < tmax ->
      aget nd (node + 4 + h) = Ok (nx nd node h) /\ last (lvl nd h Lb1) 0 = node /\
      match lvl nd h Lb2 with
      | [] => nx nd node h = hd 0 (lvl nd h Lr)
      | y :: _ => nx nd node h = y /\ In y A /\ y <> 0 /\ h < hgt nd y /\ exists l1 l2, Lb2 = l1 ++ y :: l2
      end.
    Proof.
      intros EL En Hh Ht.
      assert (Hpos : last (lvl nd h Lb1) 0 = node /\ node + 4 + h < len nd).
      { destruct (list_snoc_cases Lb1) as [->|(l' & x & ->)].
        - cbn in *. subst node. pose proof (inv_head _ _ _ _ _ I). split; [reflexivity|lia].
        - rewrite last_snoc in En. subst node.
          specialize (Hh ltac:(destruct l'; discriminate)). split; [apply last_lvl_snoc; exact Hh|].
          destruct (inv_node_L c tmax d A L I x) as (H1 & H2 & H3 & H4 & H5); [|lia].
          rewrite EL, <- app_assoc. apply in_or_app. right. left. reflexivity. }
      destruct Hpos as (Hlast & Hbound).
      split; [apply aget_ok; exact Hbound|]. split; [exact Hlast|].
      pose proof (inv_chain _ _ _ _ _ I h Ht) as Hc.
      rewrite EL, !lvl_app in Hc. apply path_app in Hc as (_ & Hc). rewrite Hlast in Hc. apply path_hd in Hc.
      destruct (lvl nd h Lb2) as [|y r] eqn:ELv; cbn [app hd] in Hc; [exact Hc|].
      destruct (filter_hd_split _ _ _ _ ELv) as (l1 & l2 & ELb2 & _ & _ & Hfy).
      assert (HyA : In y A).
      { apply (inv_sub _ _ _ _ _ I). rewrite EL, ELb2. apply in_or_app. right. apply in_or_app. left. apply in_elt. }
      split; [exact Hc|]. split; [exact HyA|]. split; [exact (inv_nonzero c tmax d A L I y HyA)|].
      split; [lia|eauto].
    Qed.

    Lemma eq_is_head k Lr x :
      key_sorted c nd kv Lr -> Forall (gek d k) Lr -> In x Lr ->
      cmp c (keyof nd kv x) k = Eq -> exists t, Lr = x :: t.
    Proof.
      intros HS HG Hx E. destruct Lr as [|z t]; [destruct Hx|].
      destruct Hx as [->|Hx]; [eauto|]. exfalso.
      destruct HS as (H1 & _). rewrite Forall_forall in H1. specialize (H1 x Hx).
      apply (cmp_eq c cok) in E. inversion HG; subst. apply H2. unfold gek, lt in *. exact H1.
    Qed.

    Lemma findGE_loop_ok k prev Lb Lr :
      L = Lb ++ Lr -> Forall (ltk d k) Lb -> Forall (gek d k) Lr ->
      forall fuel Lb1 Lb2 h pn node,
        Lb = Lb1 ++ Lb2 -> node = last Lb1 0 -> (Lb1 <> [] -> h < hgt nd node) ->
        h < maxHeight d -> len pn = tmax ->
        (length Lb2 + N.to_nat h < fuel)%nat ->
        exists pn',
          findGE_loop c p fuel d k prev pn node h = Ok (hd 0 Lr, exact_of d k Lr, pn') /\
          len pn' = tmax /\
          (prev = true ->
           (forall j, j <= h -> rd pn' j = last (lvl nd j Lb) 0) /\
           (forall j, h < j -> rd pn' j = rd pn j)).
    Proof.
      intros EL Hb Hr.
      assert (HsLr : key_sorted c nd kv Lr).
      { pose proof (inv_sorted _ _ _ _ _ I) as HsL. rewrite EL in HsL. apply sorted_app in HsL. tauto. }
      assert (HLrL : incl Lr L) by (rewrite EL; apply incl_appr, incl_refl).
      destruct (inv_mh _ _ _ _ _ I) as (Hmh1 & Hmh2).
      induction fuel as [|fuel IH]; intros Lb1 Lb2 h pn node ELb En Hh Hhm Hpn Hfuel; [lia|].
      assert (EL' : L = Lb1 ++ Lb2 ++ Lr) by (rewrite EL, ELb, app_assoc; reflexivity).
      destruct (search_step Lb1 Lb2 Lr h node EL' En Hh ltac:(lia)) as (Hget & Hlast & Hnx).
      cbn [findGE_loop]. rewrite Enext, Hget. cbn [bind].
      destruct (lvl nd h Lb2) as [|y r] eqn:ELv.
      - (* nothing more below k on this level: go down or stop *)
        rewrite Hnx.
        assert (HlastLb : last (lvl nd h Lb) 0 = node).
        { rewrite ELb, lvl_app, ELv, app_nil_r. exact Hlast. }
        set (next := hd 0 (lvl nd h Lr)).
        assert (Hr' : exists r0,
          (if next =? 0 then Ok Gt else k0 <- node_key p d next;; Ok (cmp c k0 k)) = Ok r0 /\ r0 <> Lt /\
          (r0 = Eq -> hd 0 Lr = next /\ exact_of d k Lr = true) /\
          (h = 0 -> hd 0 Lr = next /\ exact_of d k Lr = is_eq r0)).
        { pose proof (lvl_hd h Lr HLrL) as Hn. subst next.
          destruct (lvl nd h Lr) as [|z r'] eqn:E; cbn [hd].
          - exists Gt. split; [reflexivity|]. split; [congruence|]. split; [congruence|].
            intros ->. rewrite (lvl0_sub Lr HLrL) in E. rewrite E. split; reflexivity.
          - destruct Hn as (HzLr & HzA & Hz0). replace (z =? 0) with false by lia.
            rewrite (node_key_ok z HzA). cbn [bind].
            exists (cmp c (keyof nd kv z) k).
            split; [reflexivity|]. split; [exact (proj1 (Forall_forall _ _) Hr z HzLr)|]. split.
            + intros E'. destruct (eq_is_head k Lr z HsLr Hr HzLr E') as (t & Et).
              rewrite Et. cbn. rewrite E'. split; reflexivity.
            + intros ->. rewrite (lvl0_sub Lr HLrL) in E. rewrite E. split; reflexivity. }
        destruct Hr' as (r0 & -> & Hr0 & HEq & Hh0). cbn [bind].
        replace (match r0 with Lt => findGE_loop c p fuel d k prev pn next h | _ => _ end)
          with (pn1 <- (if prev then aset pn h node else Ok pn);;
                (if negb prev && is_eq r0 then Ok (next, true, pn1)
                 else if h =? 0 then Ok (next, is_eq r0, pn1)
                 else findGE_loop c p fuel d k prev pn1 node (h - 1)))
          by (destruct r0; congruence).
        destruct (prev_write prev pn h node ltac:(lia)) as (pn1 & -> & Hl1 & Hrec). cbn [bind].
        rewrite Hpn in Hl1. rewrite <- HlastLb in Hrec.
        destruct (negb prev && is_eq r0) eqn:Estop; [|destruct (h =? 0) eqn:Eh0].
        + assert (r0 = Eq) by (destruct r0, prev; cbn in Estop; congruence).
          destruct (HEq H) as (E1 & E2). rewrite E1, E2.
          exists pn1. split; [reflexivity|]. split; [exact Hl1|]. destruct prev; discriminate.
        + apply N.eqb_eq in Eh0. destruct (Hh0 Eh0) as (E1 & E2). rewrite E1, E2. subst h.
          exists pn1. split; [reflexivity|]. split; [exact Hl1|]. intros Hp.
          destruct (Hrec Hp) as (R1 & R2). split.
          * intros j Hj. apply N.le_0_r in Hj. subst j. exact R1.
          * intros j Hj. apply R2. apply N.neq_sym, N.lt_neq. exact Hj.
        + apply N.eqb_neq in Eh0.
          destruct (IH Lb1 Lb2 (h - 1) pn1 node ELb En) as (pn' & E & Hl & Hp);
            [intros Hne; exact (descend_lt _ _ (Hh Hne))|exact (descend_lt _ _ Hhm)|exact Hl1
            |exact (descend_fuel _ _ _ Eh0 Hfuel)|].
          exists pn'. split; [exact E|]. split; [exact Hl|]. intros Hprev.
          exact (prev_written (fun j => last (lvl nd j Lb) 0) pn pn1 pn' h (Hrec Hprev) Eh0 (Hp Hprev)).
      - (* the next node on this level is still below k: move right *)
        destruct Hnx as (-> & HyA & Hy0 & Hhy & l1 & l2 & ELb2).
        replace (y =? 0) with false by lia.
        rewrite (node_key_ok y HyA). cbn [bind].
        assert (Hlt : cmp c (keyof nd kv y) k = Lt).
        { apply (proj1 (Forall_forall _ _) Hb y). rewrite ELb, ELb2. apply in_or_app. right. apply in_elt. }
        rewrite Hlt.
        apply (IH (Lb1 ++ l1 ++ [y]) l2 h pn y).
        + rewrite ELb, ELb2. rewrite <- !app_assoc. reflexivity.
        + rewrite app_assoc, last_snoc. reflexivity.
        + intros _. exact Hhy.
        + exact Hhm.
        + exact Hpn.
        + rewrite ELb2, app_length in Hfuel. cbn [length] in Hfuel. lia.
    Qed.

    Lemma lvl_above_mh j l : incl l L -> maxHeight d <= j -> lvl nd j l = [].
    Proof.
      intros Hl Hj. apply lvl_high. apply Forall_forall. intros x Hx.
      destruct (inv_node_L c tmax d A L I x (Hl x Hx)) as (_ & _ & H & _). lia.
    Qed.

    Lemma findGE_ok k prev Lb Lr fuel :
      L = Lb ++ Lr -> Forall (ltk d k) Lb -> Forall (gek d k) Lr ->
      (length L + N.to_nat (maxHeight d) <= fuel)%nat ->
      exists pn',
        findGE c p fuel d k prev (prev_init p) = Ok (hd 0 Lr, exact_of d k Lr, pn') /\
        len pn' = tmax /\
        (prev = true -> forall j, j < tmax -> rd pn' j = last (lvl nd j Lb) 0).
    Proof.
      intros EL Hb Hr Hfuel. destruct (inv_mh _ _ _ _ _ I) as (Hmh1 & Hmh2).
      unfold findGE.
      destruct (findGE_loop_ok k prev Lb Lr EL Hb Hr fuel [] Lb (maxHeight d - 1) (prev_init p) 0)
        as (pn' & E & Hl & Hp).
      - reflexivity.
      - reflexivity.
      - congruence.
      - lia.
      - unfold prev_init. rewrite len_repeat. fold tmax. lia.
      - rewrite EL, app_length in Hfuel. lia.
      - exists pn'. split; [exact E|]. split; [exact Hl|]. intros Hprev j Hj.
        destruct (Hp Hprev) as (Hp1 & Hp2).
        destruct (N.le_gt_cases j (maxHeight d - 1)) as [Hle|Hgt].
        + apply Hp1. exact Hle.
        + rewrite Hp2 by exact Hgt. unfold prev_init. rewrite rd_repeat0.
          rewrite lvl_above_mh; [reflexivity| |lia].
          rewrite EL. intros x Hx. apply in_or_app. left. exact Hx.
    Qed.

    Lemma findLT_loop_ok k Lb Lr :
      L = Lb ++ Lr -> Forall (ltk d k) Lb -> Forall (gek d k) Lr ->
      forall fuel Lb1 Lb2 h node,
        Lb = Lb1 ++ Lb2 -> node = last Lb1 0 -> (Lb1 <> [] -> h < hgt nd node) ->
        h < maxHeight d ->
        (length Lb2 + N.to_nat h < fuel)%nat ->
        findLT_loop c p fuel d k node h = Ok (last Lb 0).
    Proof.
      intros EL Hb Hr.
      assert (HLrL : incl Lr L) by (rewrite EL; apply incl_appr, incl_refl).
      destruct (inv_mh _ _ _ _ _ I) as (Hmh1 & Hmh2).
      pose proof (inv_head _ _ _ _ _ I) as Hhead.
      induction fuel as [|fuel IH]; intros Lb1 Lb2 h node ELb En Hh Hhm Hfuel; [lia|].
      assert (EL' : L = Lb1 ++ Lb2 ++ Lr) by (rewrite EL, ELb, app_assoc; reflexivity).
      destruct (search_step Lb1 Lb2 Lr h node EL' En Hh ltac:(lia)) as (Hget & Hlast & Hnx).
      cbn [findLT_loop]. rewrite Enext, Ekey, Hget. cbn [bind].
      destruct (lvl nd h Lb2) as [|y r] eqn:ELv.
      - rewrite Hnx. set (next := hd 0 (lvl nd h Lr)).
        assert (Hstop : exists o,
          aget nd next = Ok o /\
          (if next =? 0 then Ok true
           else kl <- aget nd (next + 1);; k0 <- bslice kv o (o + kl);;
                Ok (negb (match cmp c k0 k with Lt => true | _ => false end))) = Ok true).
        { pose proof (lvl_hd h Lr HLrL) as Hn. subst next. destruct (lvl nd h Lr) as [|z r']; cbn [hd].
          - exists (rd nd 0). split; [apply aget_ok; lia|reflexivity].
          - destruct Hn as (HzLr & HzA & Hz0). destruct (key_read z HzA) as (R0 & R1 & RK).
            exists (rd nd z). split; [exact R0|]. replace (z =? 0) with false by lia.
            rewrite R1. cbn [bind]. rewrite RK. cbn [bind].
            pose proof (proj1 (Forall_forall _ _) Hr z HzLr) as Hge. unfold gek in Hge.
            destruct (cmp c (keyof nd kv z) k); try congruence; reflexivity. }
        destruct Hstop as (o & -> & Hstop). cbn [bind]. rewrite Hstop. cbn [bind].
        destruct (h =? 0) eqn:Eh0.
        + apply N.eqb_eq in Eh0. subst h. rewrite lvl0_sub in ELv.
          * subst Lb2. rewrite app_nil_r in ELb. subst Lb1. congruence.
          * rewrite EL'. apply incl_appr, incl_appl, incl_refl.
        + apply N.eqb_neq in Eh0.
          apply (IH Lb1 Lb2 (h - 1) node ELb En);
            [intros Hne; exact (descend_lt _ _ (Hh Hne))|exact (descend_lt _ _ Hhm)|exact (descend_fuel _ _ _ Eh0 Hfuel)].
      - destruct Hnx as (-> & HyA & Hy0 & Hhy & l1 & l2 & ELb2).
        destruct (key_read y HyA) as (R0 & R1 & RK).
        rewrite R0. cbn [bind]. replace (y =? 0) with false by lia.
        rewrite R1. cbn [bind]. rewrite RK. cbn [bind].
        assert (Hlt : cmp c (keyof nd kv y) k = Lt).
        { apply (proj1 (Forall_forall _ _) Hb y). rewrite ELb, ELb2. apply in_or_app. right. apply in_elt. }
        rewrite Hlt. cbn [negb].
        apply (IH (Lb1 ++ l1 ++ [y]) l2 h y).
        + rewrite ELb, ELb2. rewrite <- !app_assoc. reflexivity.
        + rewrite app_assoc, last_snoc. reflexivity.
        + intros _. exact Hhy.
        + exact Hhm.
        + rewrite ELb2, app_length in Hfuel. cbn [length] in Hfuel. lia.
    Qed.

    Lemma findLT_ok k Lb Lr fuel :
      L = Lb ++ Lr -> Forall (ltk d k) Lb -> Forall (gek d k) Lr ->
      (length L + N.to_nat (maxHeight d) <= fuel)%nat ->
      findLT c p fuel d k = Ok (last Lb 0).
    Proof.
      intros EL Hb Hr Hfuel. destruct (inv_mh _ _ _ _ _ I) as (Hmh1 & Hmh2).
      unfold findLT.
      apply (findLT_loop_ok k Lb Lr EL Hb Hr fuel [] Lb (maxHeight d - 1) 0); auto.
      - congruence.
      - lia.
      - rewrite EL, app_length in Hfuel. lia.
    Qed.

    Lemma findLast_loop_ok :
      forall fuel Lb1 Lb2 h node,
        L = Lb1 ++ Lb2 -> node = last Lb1 0 -> (Lb1 <> [] -> h < hgt nd node) ->
        h < maxHeight d ->
        (length Lb2 + N.to_nat h < fuel)%nat ->
        findLast_loop p fuel d node h = Ok (last L 0).
    Proof.
      destruct (inv_mh _ _ _ _ _ I) as (Hmh1 & Hmh2).
      induction fuel as [|fuel IH]; intros Lb1 Lb2 h node EL En Hh Hhm Hfuel; [lia|].
      assert (EL' : L = Lb1 ++ Lb2 ++ []) by (rewrite app_nil_r; exact EL).
      destruct (search_step Lb1 Lb2 [] h node EL' En Hh ltac:(lia)) as (Hget & Hlast & Hnx).
      cbn [findLast_loop]. rewrite Enext, Hget. cbn [bind].
      destruct (lvl nd h Lb2) as [|y r] eqn:ELv.
      - rewrite Hnx. cbn [lvl filter hd]. rewrite N.eqb_refl.
        destruct (h =? 0) eqn:Eh0.
        + apply N.eqb_eq in Eh0. subst h. rewrite lvl0_sub in ELv.
          * subst Lb2. rewrite app_nil_r in EL. subst Lb1. congruence.
          * rewrite EL. apply incl_appr, incl_refl.
        + apply N.eqb_neq in Eh0.
          apply (IH Lb1 Lb2 (h - 1) node EL En);
            [intros Hne; exact (descend_lt _ _ (Hh Hne))|exact (descend_lt _ _ Hhm)|exact (descend_fuel _ _ _ Eh0 Hfuel)].
      - destruct Hnx as (-> & HyA & Hy0 & Hhy & l1 & l2 & ELb2).
        replace (y =? 0) with false by lia.
        apply (IH (Lb1 ++ l1 ++ [y]) l2 h y).
        + rewrite EL, ELb2. rewrite <- !app_assoc. reflexivity.
        + rewrite app_assoc, last_snoc. reflexivity.
        + intros _. exact Hhy.
        + exact Hhm.
        + rewrite ELb2, app_length in Hfuel. cbn [length] in Hfuel. lia.
    Qed.

    Lemma findLast_ok fuel :
      (length L + N.to_nat (maxHeight d) <= fuel)%nat ->
      findLast p fuel d = Ok (last L 0).
    Proof.
      intros Hfuel. destruct (inv_mh _ _ _ _ _ I) as (Hmh1 & Hmh2).
      unfold findLast.
      apply (findLast_loop_ok fuel [] L (maxHeight d - 1) 0); auto.
      - congruence.
      - lia.
      - lia.
    Qed.
  End WithInv.
End Find.
