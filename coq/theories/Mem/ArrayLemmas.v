(* Mem/ArrayLemmas.v — facts about the result monad and the array primitives of Mem/MemDB.v
   (aget / aset / bslice) in terms of total ghost accessors rd / upd / sl. *)
From GL Require Import Mem.MemDB.
From Coq Require Import Lia.
Open Scope N_scope.

Lemma bind_ok {A B} (r : res A) (f : A -> res B) b :
  bind r f = Ok b -> exists a, r = Ok a /\ f a = Ok b.
Proof. destruct r; cbn; intros H; try discriminate. eauto. Qed.

Lemma bind_Ok {A B} (a : A) (f : A -> res B) : bind (Ok a) f = f a.
Proof. reflexivity. Qed.

Definition rd (l : list N) (i : N) : N := nth (N.to_nat i) l 0.
Definition upd (l : list N) (i v : N) : list N :=
  firstn (N.to_nat i) l ++ v :: skipn (S (N.to_nat i)) l.
Definition sl (b : bytes) (lo hi : N) : bytes :=
  firstn (N.to_nat (hi - lo)) (skipn (N.to_nat lo) b).

Lemma len_app {A} (l1 l2 : list A) : len (l1 ++ l2) = len l1 + len l2.
Proof. unfold len. rewrite app_length. lia. Qed.

Lemma len_nil {A} : len (@nil A) = 0.
Proof. reflexivity. Qed.

Lemma len_cons {A} (x : A) l : len (x :: l) = 1 + len l.
Proof. unfold len. cbn [length]. lia. Qed.

Lemma len_repeat {A} (x : A) n : len (repeat x n) = N.of_nat n.
Proof. unfold len. now rewrite repeat_length. Qed.

Lemma aget_ok l i : i < len l -> aget l i = Ok (rd l i).
Proof.
  unfold aget, rd, len. intros H.
  destruct (nth_error l (N.to_nat i)) eqn:E.
  - now rewrite (nth_error_nth _ _ 0 E).
  - apply nth_error_None in E. lia.
Qed.

Lemma aget_inv l i v : aget l i = Ok v -> i < len l /\ v = rd l i.
Proof.
  unfold aget, rd, len. destruct (nth_error l (N.to_nat i)) eqn:E; intros H; try discriminate.
  injection H as <-. split.
  - assert (N.to_nat i < length l)%nat by (apply nth_error_Some; congruence). lia.
  - now rewrite (nth_error_nth _ _ 0 E).
Qed.

Lemma aset_ok l i v : i < len l -> aset l i v = Ok (upd l i v).
Proof. unfold aset, upd. intros H. apply N.ltb_lt in H. now rewrite H. Qed.

Lemma aset_inv l i v l' : aset l i v = Ok l' -> i < len l /\ l' = upd l i v.
Proof.
  unfold aset, upd. destruct (i <? len l) eqn:E; intros H; try discriminate.
  injection H as <-. split; [now apply N.ltb_lt|reflexivity].
Qed.

Lemma len_upd l i v : i < len l -> len (upd l i v) = len l.
Proof.
  unfold upd, len. intros H. rewrite app_length. cbn [length].
  rewrite firstn_length, skipn_length. lia.
Qed.

Lemma nth_upd {A} (d v : A) : forall l i j, (i < length l)%nat ->
  nth j (firstn i l ++ v :: skipn (S i) l) d = if Nat.eqb j i then v else nth j l d.
Proof.
  induction l as [|x l IH]; intros [|i] [|j] H; cbn [length] in H; try lia; cbn; try reflexivity.
  apply IH. lia.
Qed.

Lemma rd_upd l i v j : i < len l -> rd (upd l i v) j = if j =? i then v else rd l j.
Proof.
  unfold upd, rd, len. intros H. rewrite nth_upd by lia.
  destruct (N.eqb_spec j i) as [->|E]; [now rewrite Nat.eqb_refl|].
  destruct (Nat.eqb_spec (N.to_nat j) (N.to_nat i)); [lia|reflexivity].
Qed.

Lemma rd_upd_same l i v : i < len l -> rd (upd l i v) i = v.
Proof. intros H. rewrite rd_upd by exact H. now rewrite N.eqb_refl. Qed.

Lemma rd_upd_other l i v j : i < len l -> j <> i -> rd (upd l i v) j = rd l j.
Proof. intros H Hne. rewrite rd_upd by exact H. apply N.eqb_neq in Hne. now rewrite Hne. Qed.

Lemma rd_app1 l l' j : j < len l -> rd (l ++ l') j = rd l j.
Proof. unfold rd, len. intros H. apply app_nth1. lia. Qed.

Lemma rd_app2 l l' j : rd (l ++ l') (len l + j) = rd l' j.
Proof.
  unfold rd, len. rewrite app_nth2 by lia. f_equal. lia.
Qed.

Lemma rd_overflow l j : len l <= j -> rd l j = 0.
Proof. unfold rd, len. intros H. apply nth_overflow. lia. Qed.

Lemma rd_repeat0 n j : rd (repeat 0 n) j = 0.
Proof.
  unfold rd. destruct (Nat.lt_ge_cases (N.to_nat j) n) as [H|H].
  - apply nth_repeat.
  - apply nth_overflow. rewrite repeat_length. lia.
Qed.

Lemma rd_firstn l n j : j < N.of_nat n -> rd (firstn n l) j = rd l j.
Proof.
  unfold rd. intros H. revert l j H. induction n as [|n IH]; intros l j H; [lia|].
  destruct l as [|x l]; [reflexivity|].
  cbn [firstn]. destruct (N.to_nat j) as [|k] eqn:Ek; [reflexivity|].
  cbn [nth]. specialize (IH l (N.of_nat k)). rewrite Nat2N.id in IH. apply IH. lia.
Qed.

Lemma len_firstn {A} (l : list A) n : N.of_nat n <= len l -> len (firstn n l) = N.of_nat n.
Proof. unfold len. intros H. rewrite firstn_length. lia. Qed.

Lemma bslice_ok b lo hi : lo <= hi -> hi <= len b -> bslice b lo hi = Ok (sl b lo hi).
Proof.
  unfold bslice, sl. intros H1 H2.
  apply N.leb_le in H1, H2. now rewrite H1, H2.
Qed.

Lemma bslice_inv b lo hi r : bslice b lo hi = Ok r -> lo <= hi /\ hi <= len b /\ r = sl b lo hi.
Proof.
  unfold bslice, sl. destruct (lo <=? hi) eqn:E1; destruct (hi <=? len b) eqn:E2; cbn; intros H; try discriminate.
  injection H as <-. apply N.leb_le in E1, E2. auto.
Qed.

Lemma sl_app1 b b' lo hi : hi <= len b -> sl (b ++ b') lo hi = sl b lo hi.
Proof.
  unfold sl, len. intros H.
  destruct (N.le_gt_cases lo hi) as [Hle|Hgt].
  - rewrite skipn_app. rewrite firstn_app.
    rewrite skipn_length.
    replace (N.to_nat (hi - lo) - (length b - N.to_nat lo))%nat with 0%nat by lia.
    cbn [firstn]. now rewrite app_nil_r.
  - replace (hi - lo) with 0 by lia. reflexivity.
Qed.

Lemma sl_len b lo hi : lo <= hi -> hi <= len b -> len (sl b lo hi) = hi - lo.
Proof.
  unfold sl, len. intros H1 H2. rewrite firstn_length, skipn_length. lia.
Qed.

Lemma sl_app2 (b r : bytes) lo hi : sl (b ++ r) (len b + lo) (len b + hi) = sl r lo hi.
Proof. unfold sl, len. rewrite skipn_app, skipn_all2 by lia. cbn [app]. f_equal; [|f_equal]; lia. Qed.

Lemma sl_full (b : bytes) : sl b 0 (len b) = b.
Proof. unfold sl, len. rewrite N.sub_0_r, Nat2N.id. apply firstn_all. Qed.

Lemma sl_app_mid (b k v : bytes) : sl (b ++ k ++ v) (len b) (len b + len k) = k.
Proof. rewrite <- (N.add_0_r (len b)) at 1. rewrite sl_app2, sl_app1 by lia. apply sl_full. Qed.

Lemma sl_app_end (b k v : bytes) :
  sl (b ++ k ++ v) (len b + len k) (len b + len k + len v) = v.
Proof. rewrite app_assoc, <- len_app. rewrite <- (N.add_0_r (len (b ++ k))) at 1. rewrite sl_app2. apply sl_full. Qed.
