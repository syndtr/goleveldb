(* Mem/MemIter.v — the iterator of the array model against the reference cursor: First, Last,
   Seek, Next, Prev with any slice, under the representation invariant.
   Rit d L it cu relates a model iterator to a reference cursor: same slice and direction,
   same current pair (as found by the last movement), the pair's key inside the slice, and —
   unless the cursor is stale — the iterator's node is the live node holding that key. *)
From GL Require Import Base.OrderProofs Mem.MemSpec Mem.ArrayLemmas Mem.ListLemmas Mem.MemInv Mem.MemFind
  Mem.MemSpecProofs Mem.MemOps.
From Coq Require Import Lia.
Open Scope N_scope.

Section Iter.
  Variable c : comparer.
  Hypothesis cok : comparer_ok c.
  Variable p : mparams.
  Hypothesis pok : mparams_ok p.

  Local Notation tmax := (tMaxHeight p).

  Definition Rit (d : db) (L : list N) (it : iter) (cu : cursor) : Prop :=
    it_slice it = cu_slice cu /\ it_fwd it = cu_fwd cu /\
    match cu_cur cu with
    | None => it_node it = 0 /\ it_key it = None /\ it_val it = None
    | Some (k, v) =>
        it_node it <> 0 /\ it_key it = Some k /\ it_val it = Some v /\
        in_range c (cu_slice cu) k = true /\
        (cu_stale cu = false ->
         In (it_node it) L /\ keyof (nodeData d) (kvData d) (it_node it) = k)
    end.

  Definition fill_bad (it : iter) (key : bytes) (cs cl : bool) : bool :=
    (match sl_limit it with Some l => cl && negb (ltb c key l) | None => false end) ||
    (match sl_start it with Some s => cs && ltb c key s | None => false end).

  Lemma fill_bad_limit it key : fill_bad it key false true = negb (lim_ok c (it_slice it) key).
  Proof.
    unfold fill_bad, sl_limit, sl_start, lim_ok. destruct (it_slice it) as [([s|], [l|])|]; cbn;
      rewrite ?orb_false_r; reflexivity.
  Qed.

  Lemma fill_bad_start it key : fill_bad it key true false = negb (start_ok c (it_slice it) key).
  Proof.
    unfold fill_bad, sl_limit, sl_start, start_ok. destruct (it_slice it) as [([s|], [l|])|]; cbn;
      rewrite ?negb_involutive; reflexivity.
  Qed.

  Lemma abs_sorted nd kv l : key_sorted c nd kv l -> smap_sorted c (map (kvof nd kv) l).
  Proof.
    induction l as [|x l IH]; [cbn; auto|]. intros (H1 & H2).
    cbn [map]. split; [apply Forall_map; exact H1|apply IH; exact H2].
  Qed.

  Section WithInv.
    Variables (d : db) (A L : list N).
    Hypothesis I : Inv c tmax d A L.
    Local Notation nd := (nodeData d).
    Local Notation kv := (kvData d).

    Lemma fill_zero it fwd cs cl :
      fill c p d (with_node it 0 fwd) cs cl = Ok (bail (with_node it 0 fwd), false).
    Proof. reflexivity. Qed.

    Lemma fill_node it x fwd cs cl :
      In x A ->
      fill c p d (with_node it x fwd) cs cl =
        if fill_bad it (keyof nd kv x) cs cl then Ok (bail (with_node it x fwd), false)
        else Ok ({| it_slice := it_slice it; it_node := x; it_fwd := fwd;
                    it_key := Some (keyof nd kv x); it_val := Some (valof nd kv x) |}, true).
    Proof.
      intros Hx. pose proof (inv_nonzero c tmax d A L I x Hx) as Hx0.
      destruct (inv_node_A c tmax d A L I x Hx) as (H1 & H2 & H3 & H4 & H5).
      unfold fill. cbn [it_node with_node it_slice it_fwd].
      replace (x =? 0) with false by lia.
      rewrite (Ekey p pok), (Eval p pok).
      rewrite (aget_ok nd x) by lia. cbn [bind]. rewrite (aget_ok nd (x + 1)) by lia. cbn [bind].
      rewrite bslice_ok by lia. cbn [bind].
      unfold fill_bad. unfold sl_limit, sl_start. cbn [it_slice with_node].
      match goal with |- (if ?b then _ else _) = (if ?b' then _ else _) => change b' with b; destruct b end.
      - reflexivity.
      - rewrite (aget_ok nd (x + 2)) by lia. cbn [bind]. rewrite bslice_ok by lia. reflexivity.
    Qed.

    (* landing on candidate node x after a movement *)
    Lemma land it cu x fwd cs cl r :
      it_slice it = cu_slice cu -> (x = 0 \/ In x L) ->
      r = (if x =? 0 then None
           else if fill_bad it (keyof nd kv x) cs cl then None else Some (kvof nd kv x)) ->
      (forall k v, r = Some (k, v) -> in_range c (cu_slice cu) k = true) ->
      exists it' ret,
        fill c p d (with_node it x fwd) cs cl = Ok (it', ret) /\
        Rit d L it' (cur_at cu r fwd) /\
        RIter ret (it_valid it') (it_key it') (it_val it') = cur_out (cur_at cu r fwd).
    Proof.
      intros Hsl [->|Hx] Hr Hin.
      - rewrite fill_zero. cbn in Hr. subst r. eexists _, _. split; [reflexivity|]. split.
        + unfold Rit. cbn. auto.
        + reflexivity.
      - pose proof (inv_nonzero c tmax d A L I x (inv_sub _ _ _ _ _ I x Hx)) as Hx0.
        replace (x =? 0) with false in Hr by lia.
        rewrite (fill_node it x fwd cs cl (inv_sub _ _ _ _ _ I x Hx)).
        destruct (fill_bad it (keyof nd kv x) cs cl); subst r.
        + eexists _, _. split; [reflexivity|]. split; [unfold Rit; cbn; auto|reflexivity].
        + eexists _, _. split; [reflexivity|]. split.
          * unfold Rit.
            cbn [cur_at cu_slice cu_fwd cu_cur cu_stale it_slice it_fwd it_node it_key it_val kvof].
            split; [exact Hsl|]. split; [reflexivity|]. split; [exact Hx0|].
            split; [reflexivity|]. split; [reflexivity|]. split; [apply (Hin _ _ eq_refl)|].
            intros _. split; [exact Hx|reflexivity].
          * unfold it_valid. cbn. replace (x =? 0) with false by lia. reflexivity.
    Qed.

    (* nodes of a cut are nonzero, so hd 0 / last 0 tell whether the cut is empty *)
    Lemma hd_zero l : incl l L -> hd 0 l = 0 -> l = [].
    Proof.
      destruct l as [|x l]; [auto|]. cbn. intros Hl ->.
      exfalso. apply (inv_nonzero c tmax d A L I 0); [|reflexivity].
      apply (inv_sub _ _ _ _ _ I). apply Hl. left. reflexivity.
    Qed.

    Lemma level0_path : path nd 0 0 L 0.
    Proof.
      pose proof (inv_chain _ _ _ _ _ I 0) as H. rewrite (inv_lvl0 c tmax d A L I) in H.
      apply H. pose proof (tmax_pos p pok). lia.
    Qed.

    Local Notation m := (abs d L).

    Lemma land_fwd it cu lo hiL f :
      it_slice it = cu_slice cu ->
      L = lo ++ hiL ->
      Forall (fun x => in_range c (cu_slice cu) (keyof nd kv x) && f (kvof nd kv x) = false) lo ->
      Forall (fun x => f (kvof nd kv x) = true /\ start_ok c (cu_slice cu) (keyof nd kv x) = true) hiL ->
      exists it' ret,
        fill c p d (with_node it (hd 0 hiL) true) false true = Ok (it', ret) /\
        Rit d L it' (cur_at cu (find f (vis c (cu_slice cu) m)) true) /\
        RIter ret (it_valid it') (it_key it') (it_val it') =
          cur_out (cur_at cu (find f (vis c (cu_slice cu) m)) true).
    Proof.
      intros Hsl EL Hlo Hhi.
      apply (proj2 (Forall_map (kvof nd kv) (fun e => in_range c (cu_slice cu) (fst e) && f e = false) lo)) in Hlo.
      apply (proj2 (Forall_map (kvof nd kv) (fun e => f e = true /\ start_ok c (cu_slice cu) (fst e) = true) hiL)) in Hhi.
      assert (HS : smap_sorted c (map (kvof nd kv) lo ++ map (kvof nd kv) hiL)).
      { rewrite <- map_app, <- EL. apply abs_sorted. apply (inv_sorted _ _ _ _ _ I). }
      assert (Eq : find f (vis c (cu_slice cu) m) =
                   match map (kvof nd kv) hiL with
                   | [] => None
                   | e :: _ => if lim_ok c (cu_slice cu) (fst e) then Some e else None
                   end).
      { unfold abs. rewrite EL, map_app. apply (fwd_query c cok); assumption. }
      apply land.
      - exact Hsl.
      - destruct hiL as [|x hiL]; [left; reflexivity|right]. rewrite EL. apply in_or_app. right. left. reflexivity.
      - rewrite Eq. destruct hiL as [|x hiL]; [reflexivity|]. cbn [hd map].
        assert (HxL : In x L) by (rewrite EL; apply in_or_app; right; left; reflexivity).
        pose proof (inv_nonzero c tmax d A L I x (inv_sub _ _ _ _ _ I x HxL)) as Hx0.
        replace (x =? 0) with false by lia. rewrite fill_bad_limit, Hsl. cbn [fst kvof].
        destruct (lim_ok c (cu_slice cu) (keyof nd kv x)); reflexivity.
      - intros k v. rewrite Eq. destruct hiL as [|x hiL]; [discriminate|]. cbn [map].
        inversion Hhi as [|? ? (_ & Hs) _]; subst.
        destruct (lim_ok c (cu_slice cu) (fst (kvof nd kv x))) eqn:El; [|discriminate].
        intros E. unfold kvof in E, Hs, El. cbn [fst] in Hs, El. injection E as E1 E2.
        rewrite in_range_split. rewrite E1 in Hs, El. now rewrite Hs, El.
    Qed.

    Lemma land_bwd it cu loL hi f :
      it_slice it = cu_slice cu ->
      L = loL ++ hi ->
      Forall (fun x => in_range c (cu_slice cu) (keyof nd kv x) && f (kvof nd kv x) = false) hi ->
      Forall (fun x => f (kvof nd kv x) = true /\ lim_ok c (cu_slice cu) (keyof nd kv x) = true) loL ->
      exists it' ret,
        fill c p d (with_node it (last loL 0) false) true false = Ok (it', ret) /\
        Rit d L it' (cur_at cu (find_last f (vis c (cu_slice cu) m)) false) /\
        RIter ret (it_valid it') (it_key it') (it_val it') =
          cur_out (cur_at cu (find_last f (vis c (cu_slice cu) m)) false).
    Proof.
      intros Hsl EL Hhi Hlo.
      apply (proj2 (Forall_map (kvof nd kv) (fun e => in_range c (cu_slice cu) (fst e) && f e = false) hi)) in Hhi.
      apply (proj2 (Forall_map (kvof nd kv) (fun e => f e = true /\ lim_ok c (cu_slice cu) (fst e) = true) loL)) in Hlo.
      assert (HS : smap_sorted c (map (kvof nd kv) loL ++ map (kvof nd kv) hi)).
      { rewrite <- map_app, <- EL. apply abs_sorted. apply (inv_sorted _ _ _ _ _ I). }
      destruct (list_snoc_cases loL) as [->|(lo' & x & ->)].
      - assert (Eq : find_last f (vis c (cu_slice cu) m) = None).
        { unfold abs. rewrite EL. cbn [app]. apply bwd_query_nil. exact Hhi. }
        rewrite Eq. cbn [last]. apply land; [exact Hsl|left; reflexivity|reflexivity|intros k v; discriminate].
      - rewrite last_snoc.
        assert (HxL : In x L).
        { rewrite EL. apply in_or_app. left. apply in_or_app. right. left. reflexivity. }
        pose proof (inv_nonzero c tmax d A L I x (inv_sub _ _ _ _ _ I x HxL)) as Hx0.
        assert (Eq : find_last f (vis c (cu_slice cu) m) =
                     if start_ok c (cu_slice cu) (keyof nd kv x) then Some (kvof nd kv x) else None).
        { unfold abs. rewrite EL, !map_app. cbn [map].
          rewrite map_app in HS, Hlo. cbn [map] in HS, Hlo.
          apply (bwd_query c cok (cu_slice cu) f _ (kvof nd kv x)); assumption. }
        rewrite Eq. apply land.
        + exact Hsl.
        + right. exact HxL.
        + replace (x =? 0) with false by lia. rewrite fill_bad_start, Hsl.
          destruct (start_ok c (cu_slice cu) (keyof nd kv x)); reflexivity.
        + intros k v.
          destruct (start_ok c (cu_slice cu) (keyof nd kv x)) eqn:Es; [|discriminate].
          intros E. injection E as E1 E2. rewrite in_range_split.
          rewrite map_app in Hlo. apply Forall_app in Hlo as (_ & Hlo). cbn [map] in Hlo.
          inversion Hlo as [|? ? (_ & Hl) _]; subst. cbn [fst kvof] in Hl. now rewrite Es, Hl.
    Qed.

    Lemma start_ok_it it k :
      start_ok c (it_slice it) k = match sl_start it with Some s => negb (ltb c k s) | None => true end.
    Proof. unfold sl_start, start_ok. destruct (it_slice it) as [([s|], l)|]; reflexivity. Qed.

    Lemma lim_ok_it it k :
      lim_ok c (it_slice it) k = match sl_limit it with Some l => ltb c k l | None => true end.
    Proof. unfold sl_limit, lim_ok. destruct (it_slice it) as [(s, [l|])|]; reflexivity. Qed.

    Lemma ltk_ltb k x : ltk c d k x -> ltb c (keyof nd kv x) k = true.
    Proof. unfold ltk, lt, ltb. now intros ->. Qed.
    Lemma gek_ltb k x : gek c d k x -> ltb c (keyof nd kv x) k = false.
    Proof. unfold gek, ltb. destruct (cmp c (keyof nd kv x) k); congruence. Qed.

    Definition move_ok (it : iter) (cu cu' : cursor) (r : res (iter * bool)) : Prop :=
      exists it' ret, r = Ok (it', ret) /\ Rit d L it' cu' /\
                      RIter ret (it_valid it') (it_key it') (it_val it') = cur_out cu'.

    Lemma it_first_ok it cu :
      Rit d L it cu -> move_ok it cu (c_first c m cu) (it_first c p (op_fuel d) d it).
    Proof.
      intros (Hsl & Hfw & Hcur).
      unfold move_ok, c_first, it_first. rewrite <- find_true_hd.
      destruct (sl_start it) as [s|] eqn:Es.
      - destruct (locate c cok p pok d A L s I) as (Lb & Lr & EL & Hb & Hr & _ & _ & HGE & _).
        destruct (HGE false) as (pn & ->). cbn [bind].
        apply (land_fwd it cu Lb Lr (fun _ => true) Hsl EL).
        + eapply Forall_impl; [|exact Hb]. intros x Hx.
          rewrite in_range_split, <- Hsl, start_ok_it, Es, (ltk_ltb s x Hx). reflexivity.
        + eapply Forall_impl; [|exact Hr]. intros x Hx.
          rewrite <- Hsl, start_ok_it, Es, (gek_ltb s x Hx). auto.
      - rewrite (Enext p pok). pose proof (inv_head _ _ _ _ _ I) as Hh. pose proof (tmax_pos p pok) as Ht.
        rewrite (aget_ok nd 4) by lia. cbn [bind].
        change (rd nd 4) with (nx nd 0 0). rewrite (path_hd _ _ _ _ _ level0_path).
        apply (land_fwd it cu [] L (fun _ => true) Hsl eq_refl).
        + constructor.
        + apply Forall_forall. intros x _. rewrite <- Hsl, start_ok_it, Es. auto.
    Qed.

    Lemma it_seek_ok it cu k :
      Rit d L it cu -> move_ok it cu (c_seek c m cu k) (it_seek c p (op_fuel d) d it k).
    Proof.
      intros (Hsl & Hfw & Hcur).
      unfold move_ok, c_seek, it_seek, s_find_ge.
      set (k' := match sl_start it with Some s => if ltb c k s then s else k | None => k end).
      destruct (locate c cok p pok d A L k' I) as (Lb & Lr & EL & Hb & Hr & _ & _ & HGE & _).
      destruct (HGE false) as (pn & ->). cbn [bind].
      apply (land_fwd it cu Lb Lr (key_ge c k) Hsl EL).
      - eapply Forall_impl; [|exact Hb]. intros x Hx. unfold key_ge. cbn [fst kvof].
        subst k'. destruct (sl_start it) as [s|] eqn:Es; [destruct (ltb c k s) eqn:Eks|].
        + rewrite in_range_split, <- Hsl, start_ok_it, Es, (ltk_ltb s x Hx). reflexivity.
        + rewrite (ltk_ltb k x Hx). apply andb_false_r.
        + rewrite (ltk_ltb k x Hx). apply andb_false_r.
      - eapply Forall_impl; [|exact Hr]. intros x Hx. unfold key_ge. cbn [fst kvof].
        subst k'. rewrite <- Hsl, start_ok_it.
        destruct (sl_start it) as [s|] eqn:Es; [destruct (ltb c k s) eqn:Eks|].
        + rewrite (gek_ltb s x Hx). split; [|reflexivity].
          destruct (ltb c (keyof nd kv x) k) eqn:E1; [|reflexivity]. exfalso.
          apply (ltb_lt c) in E1, Eks. pose proof (OrderProofs.lt_trans c cok _ _ _ E1 Eks) as H.
          unfold gek in Hx. unfold lt in H. congruence.
        + rewrite (gek_ltb k x Hx). split; [reflexivity|].
          destruct (ltb c (keyof nd kv x) s) eqn:E1; [|reflexivity]. exfalso.
          apply (ltb_lt c) in E1.
          assert (Hsk : le c s k).
          { apply (OrderProofs.not_lt_le c cok). intros H. apply (ltb_lt c) in H. congruence. }
          pose proof (OrderProofs.lt_le_trans c cok _ _ _ E1 Hsk) as H. unfold gek in Hx. unfold lt in H. congruence.
        + rewrite (gek_ltb k x Hx). auto.
    Qed.

    Lemma it_last_ok it cu :
      Rit d L it cu -> move_ok it cu (c_last c m cu) (it_last c p (op_fuel d) d it).
    Proof.
      intros (Hsl & Hfw & Hcur).
      unfold move_ok, c_last, it_last.
      destruct (sl_limit it) as [l|] eqn:El.
      - destruct (locate c cok p pok d A L l I) as (Lb & Lr & EL & Hb & Hr & _ & _ & _ & ->). cbn [bind].
        apply (land_bwd it cu Lb Lr (fun _ => true) Hsl EL).
        + eapply Forall_impl; [|exact Hr]. intros x Hx.
          rewrite in_range_split, <- Hsl, lim_ok_it, El, (gek_ltb l x Hx). now rewrite andb_false_r.
        + eapply Forall_impl; [|exact Hb]. intros x Hx.
          rewrite <- Hsl, lim_ok_it, El, (ltk_ltb l x Hx). auto.
      - rewrite (findLast_ok c p pok d A L I (op_fuel d) (op_fuel_ok c p d A L I)). cbn [bind].
        apply (land_bwd it cu L [] (fun _ => true) Hsl).
        + now rewrite app_nil_r.
        + constructor.
        + apply Forall_forall. intros x _. rewrite <- Hsl, lim_ok_it, El. auto.
    Qed.

    Lemma it_prev_ok it cu :
      Rit d L it cu -> move_ok it cu (c_prev c m cu) (it_prev c p (op_fuel d) d it).
    Proof.
      intros R. pose proof R as (Hsl & Hfw & Hcur).
      unfold c_prev, it_prev.
      destruct (cu_cur cu) as [(k, v)|] eqn:Ecur.
      - destruct Hcur as (Hn0 & Hk & Hv & Hin & _).
        replace (it_node it =? 0) with false by lia.
        rewrite Hk. cbn [key_or_nil].
        destruct (locate c cok p pok d A L k I) as (Lb & Lr & EL & Hb & Hr & _ & _ & _ & ->). cbn [bind].
        unfold move_ok, s_find_lt.
        apply (land_bwd it cu Lb Lr (key_lt c k) Hsl EL).
        + eapply Forall_impl; [|exact Hr]. intros x Hx. unfold key_lt. cbn [fst kvof].
          rewrite (gek_ltb k x Hx). apply andb_false_r.
        + eapply Forall_impl; [|exact Hb]. intros x Hx. unfold key_lt. cbn [fst kvof].
          rewrite (ltk_ltb k x Hx). split; [reflexivity|].
          rewrite in_range_split in Hin. apply andb_prop in Hin as (_ & Hl).
          exact (lim_ok_mono c cok _ _ _ Hx Hl).
      - destruct Hcur as (Hn0 & Hk & Hv). rewrite Hn0, N.eqb_refl, Hfw.
        destruct (cu_fwd cu); [apply it_last_ok; exact R|].
        exists it, false. split; [reflexivity|]. split; [exact R|].
        unfold cur_out, it_valid. rewrite Ecur, Hn0, Hk, Hv. reflexivity.
    Qed.

    Lemma it_next_ok it cu cu' :
      Rit d L it cu -> c_next c m cu = Some cu' -> move_ok it cu cu' (it_next c p (op_fuel d) d it).
    Proof.
      intros R. pose proof R as (Hsl & Hfw & Hcur).
      unfold c_next, it_next.
      destruct (cu_cur cu) as [(k, v)|] eqn:Ecur.
      - destruct (cu_stale cu) eqn:Est; [discriminate|]. intros E. injection E as <-.
        destruct Hcur as (Hn0 & Hk & Hv & Hin & Hlive). destruct (Hlive eq_refl) as (HxL & Hkey).
        set (x := it_node it) in *.
        rewrite (proj2 (N.eqb_neq x 0) Hn0).
        destruct (inv_node_L c tmax d A L I x HxL) as (H1 & H2 & H3 & H4 & H5).
        assert (Hb : x + 4 + 0 < len nd) by (clear - H2 H4; lia).
        rewrite (Enext p pok), <- (N.add_0_r (x + 4)), (aget_ok nd _ Hb). cbn [bind].
        change (rd nd (x + 4 + 0)) with (nx nd x 0).
        destruct (in_split x L HxL) as (L1 & L2 & EL).
        pose proof level0_path as Hp. rewrite EL in Hp. apply path_app_cons in Hp as (_ & Hp).
        rewrite (path_hd _ _ _ _ _ Hp).
        pose proof (inv_sorted _ _ _ _ _ I) as HS. rewrite EL in HS.
        apply sorted_app in HS as (_ & HS2 & HS3). destruct HS2 as (HS2 & _).
        unfold move_ok, s_find_gt.
        apply (land_fwd it cu (L1 ++ [x]) L2 (key_gt c k) Hsl).
        + rewrite EL, <- app_assoc. reflexivity.
        + apply Forall_app. split.
          * eapply Forall_impl; [|exact HS3]. intros y Hy. unfold key_gt. cbn [fst kvof].
            pose proof (Forall_inv Hy) as Hyx. cbn beta in Hyx. rewrite Hkey in Hyx.
            unfold ltb. apply (cmp_lt_gt c cok) in Hyx. rewrite Hyx. apply andb_false_r.
          * constructor; [|constructor]. unfold key_gt. cbn [fst kvof]. rewrite Hkey.
            unfold ltb. rewrite (cmp_refl c cok). apply andb_false_r.
        + eapply Forall_impl; [|exact HS2]. intros y Hy. unfold key_gt. cbn [fst kvof].
          rewrite Hkey in Hy. split; [apply (ltb_lt c); exact Hy|].
          rewrite in_range_split in Hin. apply andb_prop in Hin as (Hs & _).
          exact (start_ok_mono c cok _ _ _ Hy Hs).
      - intros E. injection E as <-.
        destruct Hcur as (Hn0 & Hk & Hv). rewrite Hn0, N.eqb_refl, Hfw.
        destruct (cu_fwd cu); cbn [negb]; [|apply it_first_ok; exact R].
        exists it, false. split; [reflexivity|]. split; [exact R|].
        unfold cur_out, it_valid. rewrite Ecur, Hn0, Hk, Hv. reflexivity.
    Qed.
  End WithInv.
End Iter.
