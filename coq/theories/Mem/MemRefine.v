(* Mem/MemRefine.v — the array model refines the reference: a simulation between model states
   and reference states that every operation preserves, with equal outputs. *)
From GL Require Import Base.OrderProofs Mem.MemSpec Mem.MemInv Mem.MemSpecProofs Mem.MemOps Mem.MemIter.
Open Scope N_scope.

Section Refine.
  Variable c : comparer.
  Hypothesis cok : comparer_ok c.
  Variable p : mparams.
  Hypothesis pok : mparams_ok p.

  Local Notation tmax := (tMaxHeight p).

  Definition Rits (d : db) (L : list N) (its : iters) (cs : cursors) : Prop :=
    Forall2 (fun a b => fst a = fst b /\ Rit c d L (snd a) (snd b)) its cs.

  Definition Rst (s : mstate) (t : sstate) : Prop :=
    exists A L, rep c p (st_db s) A L (sp_map t) (sp_used t) /\ Rits (st_db s) L (st_its s) (sp_cur t).

  Lemma lookup_rel d L its cs id :
    Rits d L its cs ->
    match it_lookup id its, cu_lookup id cs with
    | Some it, Some cu => Rit c d L it cu
    | None, None => True
    | _, _ => False
    end.
  Proof.
    induction 1 as [|(i, it) (j, cu) its cs (Hid & HR) _ IH]; cbn; [exact Logic.I|].
    cbn in Hid. subst j. destruct (i =? id); [exact HR|exact IH].
  Qed.

  Lemma store_rel d L its cs id it cu :
    Rits d L its cs -> Rit c d L it cu -> Rits d L (it_store id it its) (cu_store id cu cs).
  Proof.
    intros H HR. induction H as [|(i, it0) (j, cu0) its cs (Hid & HR0) Htl IH]; cbn.
    - constructor; [split; [reflexivity|exact HR]|constructor].
    - cbn in Hid. subst j. destruct (i =? id).
      + constructor; [split; [reflexivity|exact HR]|exact Htl].
      + constructor; [split; [reflexivity|exact HR0]|exact IH].
  Qed.

  (* the iterators survive a write that keeps every live node they may stand on *)
  Lemma Rits_keep d d' L L' its cs :
    (forall y, In y L -> In y L' /\ keyof (nodeData d') (kvData d') y = keyof (nodeData d) (kvData d) y) ->
    Rits d L its cs -> Rits d' L' its cs.
  Proof.
    intros Hk H. induction H as [|(i, it) (j, cu) its cs (Hid & HR) _ IH]; constructor; [|exact IH].
    split; [exact Hid|]. cbn [snd] in *. destruct HR as (H1 & H2 & H3). split; [exact H1|]. split; [exact H2|].
    destruct (cu_cur cu) as [(k, v)|]; [|exact H3].
    destruct H3 as (A1 & A2 & A3 & A4 & A5). repeat split; auto.
    - destruct (A5 H) as (B1 & B2). apply (Hk _ B1).
    - destruct (A5 H) as (B1 & B2). destruct (Hk _ B1) as (_ & ->). exact B2.
  Qed.

  Lemma Rits_delete d d' L L' its cs k :
    (forall y, In y L -> keyof (nodeData d) (kvData d) y <> k ->
               In y L' /\ keyof (nodeData d') (kvData d') y = keyof (nodeData d) (kvData d) y) ->
    Rits d L its cs -> Rits d' L' its (mark_stale c k cs).
  Proof.
    intros Hk H. induction H as [|(i, it) (j, cu) its cs (Hid & HR) _ IH]; cbn [mark_stale map]; constructor;
      [|exact IH].
    cbn [fst snd] in *. destruct HR as (H1 & H2 & H3).
    destruct (cu_cur cu) as [(k', v)|] eqn:Ecur.
    - destruct (is_eq (cmp c k' k)) eqn:Eeq.
      + cbn [fst snd]. split; [exact Hid|]. unfold Rit. cbn [cu_slice cu_fwd cu_cur cu_stale].
        split; [exact H1|]. split; [exact H2|]. try rewrite Ecur.
        destruct H3 as (A1 & A2 & A3 & A4 & A5). repeat split; auto; discriminate.
      + cbn [fst snd]. split; [exact Hid|]. unfold Rit. split; [exact H1|]. split; [exact H2|]. rewrite Ecur.
        destruct H3 as (A1 & A2 & A3 & A4 & A5). repeat split; auto.
        * destruct (A5 H) as (B1 & B2). apply (Hk _ B1). rewrite B2. intros ->.
          rewrite (cmp_refl c cok) in Eeq. discriminate.
        * destruct (A5 H) as (B1 & B2). destruct (Hk _ B1) as (_ & ->); [|exact B2].
          rewrite B2. intros ->. rewrite (cmp_refl c cok) in Eeq. discriminate.
    - cbn [fst snd]. split; [exact Hid|]. unfold Rit. rewrite Ecur. auto.
  Qed.

  Lemma move_rel s t id (fm : nat -> db -> iter -> res (iter * bool)) (fs : smap -> cursor -> option cursor) t' r :
    Rst s t ->
    (forall A L it cu cu',
        Inv c tmax (st_db s) A L -> abs (st_db s) L = sp_map t -> Rit c (st_db s) L it cu ->
        fs (sp_map t) cu = Some cu' ->
        move_ok c (st_db s) L it cu cu' (fm (op_fuel (st_db s)) (st_db s) it)) ->
    smove t id fs = Some (t', r) ->
    exists s', move s id fm = Ok (s', r) /\ Rst s' t'.
  Proof.
    intros (A & L & (I & Eabs & Eused) & HR) Hm. unfold smove, move.
    pose proof (lookup_rel _ _ _ _ id HR) as Hl.
    destruct (it_lookup id (st_its s)) as [it|], (cu_lookup id (sp_cur t)) as [cu|]; try contradiction.
    - destruct (fs (sp_map t) cu) as [cu'|] eqn:Efs; [|discriminate]. intros E. injection E as <- <-.
      destruct (Hm A L it cu cu' I Eabs Hl Efs) as (it' & ret & E & HR' & Hout).
      rewrite E. cbn [bind]. eexists. split; [rewrite Hout; reflexivity|].
      exists A, L. cbn [st_db st_its sp_map sp_used sp_cur]. split; [split; [exact I|split; [exact Eabs|exact Eused]]|].
      apply store_rel; assumption.
    - intros E. injection E as <- <-. exists s. split; [reflexivity|]. exists A, L. split; [split; [exact I|split; [exact Eabs|exact Eused]]|exact HR].
  Qed.

  Lemma step_rel s t o t' r :
    Rst s t ->
    match o with OPut _ _ h => 1 <= h /\ h <= tmax | _ => True end ->
    spec_step c t o = Some (t', r) ->
    exists s', step c p s o = Ok (s', r) /\ Rst s' t'.
  Proof.
    intros HRst Hh Hs. pose proof HRst as (A & L & Hrep & HR).
    destruct o; cbn [spec_step step] in *.
    - (* Put *)
      injection Hs as <- <-. destruct Hh as (Hh1 & Hh2).
      destruct (put_ok c cok p pok _ A L _ _ k v h Hrep Hh1 Hh2) as (d' & A' & L' & E & Hrep' & Hkeep).
      rewrite E. cbn [bind]. eexists. split; [reflexivity|]. exists A', L'. cbn [st_db st_its sp_map sp_used sp_cur].
      split; [exact Hrep'|]. eapply Rits_keep; eauto.
    - (* Delete *)
      destruct (delete_ok c cok p pok _ A L _ _ k Hrep) as (d' & L' & found & E & Hcase).
      rewrite E. cbn [bind].
      destruct (s_get c k (sp_map t)) eqn:Eg.
      + injection Hs as <- <-. destruct Hcase as (-> & Hrep' & Hkeep).
        eexists. split; [reflexivity|]. exists A, L'. cbn [st_db st_its sp_map sp_used sp_cur].
        split; [exact Hrep'|]. eapply Rits_delete; eauto.
      + injection Hs as <- <-. destruct Hcase as (-> & -> & ->).
        eexists. split; [reflexivity|]. exists A, L. destruct s; cbn. split; assumption.
    - injection Hs as <- <-. rewrite (get_ok c cok p pok _ A L _ _ k Hrep). cbn [bind]. eauto.
    - injection Hs as <- <-. rewrite (find_ok c cok p pok _ A L _ _ k Hrep). cbn [bind]. eauto.
    - injection Hs as <- <-. rewrite (contains_ok c cok p pok _ A L _ _ k Hrep). cbn [bind]. eauto.
    - injection Hs as <- <-. rewrite (len_ok c p _ A L _ _ Hrep). eauto.
    - injection Hs as <- <-. rewrite (size_ok c p _ A L _ _ Hrep). eauto.
    - injection Hs as <- <-. rewrite (used_ok c p _ A L _ _ Hrep). eauto.
    - (* Reset *)
      injection Hs as <- <-. destruct Hrep as (I & _).
      destruct (reset_ok c p pok (st_db s) (inv_head _ _ _ _ _ I)) as (d' & E & Hrep').
      rewrite E. cbn [bind]. eexists. split; [reflexivity|]. exists [], []. split; [exact Hrep'|constructor].
    - (* NewIter *)
      injection Hs as <- <-. eexists. split; [reflexivity|]. exists A, L. cbn [st_db st_its sp_map sp_used sp_cur].
      split; [exact Hrep|]. apply store_rel; [exact HR|]. unfold Rit. cbn. auto.
    - eapply (move_rel s t id (it_first c p) (fun m cu => Some (c_first c m cu))); eauto.
      intros A0 L0 it cu cu' I Eabs HRit E. injection E as <-. rewrite <- Eabs.
      apply (it_first_ok c cok p pok _ A0 L0 I). exact HRit.
    - eapply (move_rel s t id (it_last c p) (fun m cu => Some (c_last c m cu))); eauto.
      intros A0 L0 it cu cu' I Eabs HRit E. injection E as <-. rewrite <- Eabs.
      apply (it_last_ok c cok p pok _ A0 L0 I). exact HRit.
    - eapply (move_rel s t id (fun f d it => it_seek c p f d it k) (fun m cu => Some (c_seek c m cu k))); eauto.
      intros A0 L0 it cu cu' I Eabs HRit E. injection E as <-. rewrite <- Eabs.
      apply (it_seek_ok c cok p pok _ A0 L0 I). exact HRit.
    - eapply (move_rel s t id (it_next c p) (c_next c)); eauto.
      intros A0 L0 it cu cu' I Eabs HRit E. rewrite <- Eabs in E.
      apply (it_next_ok c cok p pok _ A0 L0 I it cu cu' HRit E).
    - eapply (move_rel s t id (it_prev c p) (fun m cu => Some (c_prev c m cu))); eauto.
      intros A0 L0 it cu cu' I Eabs HRit E. injection E as <-. rewrite <- Eabs.
      apply (it_prev_ok c cok p pok _ A0 L0 I). exact HRit.
  Qed.

  Lemma run_from_rel ops :
    forall s t t' outs,
      Rst s t -> heights_ok tmax ops ->
      spec_run_from c t ops = Some (t', outs) ->
      exists s', run_from c p s ops = Ok (s', outs) /\ Rst s' t'.
  Proof.
    induction ops as [|o ops IH]; intros s t t' outs HR Hh; cbn [spec_run_from run_from].
    - intros E. injection E as <- <-. eauto.
    - destruct (spec_step c t o) as [(t1, r)|] eqn:Es; [|discriminate].
      destruct (spec_run_from c t1 ops) as [(t2, rs)|] eqn:Er; [|discriminate].
      intros E. injection E as <- <-.
      inversion Hh as [|? ? Ho Hops]; subst.
      destruct (step_rel s t o t1 r HR Ho Es) as (s1 & E1 & HR1).
      destruct (IH s1 t1 t2 rs HR1 Hops Er) as (s2 & E2 & HR2).
      rewrite E1. cbn [bind]. rewrite E2. cbn [bind]. eauto.
  Qed.

  Lemma init_rel : exists d, mdb_new p = Ok d /\ Rst {| st_db := d; st_its := [] |} (sp_init).
  Proof.
    destruct (new_ok c p pok) as (d & E & Hrep). exists d. split; [exact E|].
    exists [], []. split; [exact Hrep|constructor].
  Qed.

  (* every program the reference answers is answered identically by the array model *)
  Theorem refines ops outs :
    heights_ok tmax ops -> spec_run c ops = Some outs -> run c p ops = Ok outs.
  Proof.
    intros Hh. unfold spec_run, run.
    destruct (spec_run_from c sp_init ops) as [(t', outs')|] eqn:E; [|discriminate].
    cbn [option_map snd]. intros E'. injection E' as <-.
    destruct init_rel as (d & -> & HR). cbn [bind].
    destruct (run_from_rel ops _ _ _ _ HR Hh E) as (s' & -> & _). reflexivity.
  Qed.

  (* Len and Size agree with the contents after every answered program *)
  Theorem len_size ops t outs :
    heights_ok tmax ops -> spec_run_from c sp_init ops = Some (t, outs) ->
    exists d s,
      mdb_new p = Ok d /\ run_from c p {| st_db := d; st_its := [] |} ops = Ok (s, outs) /\
      mdb_len (st_db s) = Z.of_nat (length (sp_map t)) /\
      mdb_size (st_db s) = s_size (sp_map t) /\
      smap_sorted c (sp_map t).
  Proof.
    intros Hh E. destruct init_rel as (d & Ed & HR).
    destruct (run_from_rel ops _ _ _ _ HR Hh E) as (s' & Er & (A & L & Hrep & _)).
    exists d, s'. split; [exact Ed|]. split; [exact Er|].
    split; [exact (len_ok c p _ A L _ _ Hrep)|]. split; [exact (size_ok c p _ A L _ _ Hrep)|].
    destruct Hrep as (I & <- & _). apply abs_sorted. apply (inv_sorted _ _ _ _ _ I).
  Qed.
End Refine.
