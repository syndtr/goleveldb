(* Mem/ListLemmas.v — list facts used by the memdb proofs: filter/last/splits, strict sortedness
   as a Fixpoint, find past a part of the list that answers false, NoDup of an append. *)
From Coq Require Import List PeanoNat Lia.
Import ListNotations.

Section Lists.
  Context {A : Type}.
  Implicit Types (l : list A) (f : A -> bool).

  Lemma filter_nil_iff f l : filter f l = [] <-> Forall (fun x => f x = false) l.
  Proof.
    induction l as [|x l IH]; cbn; [split; auto|].
    destruct (f x) eqn:E; split; intros H.
    - discriminate.
    - inversion H; congruence.
    - constructor; [exact E|]. now apply IH.
    - inversion H; subst. now apply IH.
  Qed.

  Lemma filter_hd_split f l y r :
    filter f l = y :: r ->
    exists l1 l2, l = l1 ++ y :: l2 /\ filter f l1 = [] /\ filter f l2 = r /\ f y = true.
  Proof.
    induction l as [|x l IH]; cbn; [discriminate|].
    destruct (f x) eqn:E; intros H.
    - injection H as -> <-. exists [], l. cbn. auto.
    - destruct (IH H) as (l1 & l2 & -> & H1 & H2 & H3).
      exists (x :: l1), l2. cbn. rewrite E. auto.
  Qed.

  Lemma filter_snoc f l x : filter f (l ++ [x]) = filter f l ++ (if f x then [x] else []).
  Proof. rewrite filter_app. cbn. destruct (f x); reflexivity. Qed.

  Lemma last_snoc l x d : last (l ++ [x]) d = x.
  Proof. apply last_last. Qed.

  Lemma nth_snoc l x j y : nth_error (l ++ [x]) j = Some y ->
    j < length l /\ nth_error l j = Some y \/ j = length l /\ y = x.
  Proof.
    intros H. destruct (PeanoNat.Nat.lt_ge_cases j (length l)) as [Hlt|Hge].
    - left. rewrite nth_error_app1 in H by exact Hlt. auto.
    - right. rewrite nth_error_app2 in H by exact Hge.
      destruct (j - length l) as [|m] eqn:E; simpl in H; [|destruct m; discriminate]. inversion H. split; [|reflexivity].
      apply PeanoNat.Nat.le_antisymm; [apply PeanoNat.Nat.sub_0_le; exact E|exact Hge].
  Qed.

  Lemma last_cons_default l x d : last (x :: l) d = last l x.
  Proof.
    revert x d. induction l as [|y l IH]; intros x d; [reflexivity|].
    change (last (x :: y :: l) d) with (last (y :: l) d). now rewrite !IH.
  Qed.

  Lemma last_app_nonnil l1 l2 d : l2 <> [] -> last (l1 ++ l2) d = last l2 d.
  Proof.
    intros H. induction l1 as [|x l1 IH]; [reflexivity|].
    cbn [app]. destruct (l1 ++ l2) eqn:E.
    - destruct l1; cbn in E; [congruence|discriminate].
    - cbn [last]. exact IH.
  Qed.

  Lemma last_in l d : l <> [] -> In (last l d) l.
  Proof.
    induction l as [|x l IH]; [congruence|]. intros _.
    destruct l as [|y l]; [left; reflexivity|].
    right. apply IH. discriminate.
  Qed.

  Lemma list_snoc_cases l : l = [] \/ exists l' x, l = l' ++ [x].
  Proof.
    destruct l as [|y l]; [left; reflexivity|]. right.
    destruct (@exists_last _ (y :: l)) as (l' & x & E); [discriminate|]. eauto.
  Qed.

  Lemma in_split_first (eqd : forall a b : A, {a = b} + {a <> b}) x l :
    In x l -> exists l1 l2, l = l1 ++ x :: l2 /\ ~ In x l1.
  Proof.
    induction l as [|y l IH]; [intros []|].
    intros H. destruct (eqd y x) as [->|Hne].
    - exists [], l. auto.
    - destruct H as [->|H]; [congruence|].
      destruct (IH H) as (l1 & l2 & -> & Hn). exists (y :: l1), l2. split; [reflexivity|].
      intros [->|H']; auto.
  Qed.

  Section Sorted.
    Variable R : A -> A -> Prop.

    Fixpoint sorted l : Prop :=
      match l with
      | [] => True
      | x :: l' => Forall (R x) l' /\ sorted l'
      end.

    Lemma sorted_app l1 l2 :
      sorted (l1 ++ l2) <-> sorted l1 /\ sorted l2 /\ Forall (fun x => Forall (R x) l2) l1.
    Proof.
      induction l1 as [|x l1 IH]; cbn.
      - split; [intros H; auto|intros (_ & H & _); exact H].
      - rewrite Forall_app, IH. split.
        + intros ((H1 & H2) & H3 & H4 & H5). repeat split; auto.
        + intros ((H1 & H2) & H3 & H4). inversion H4; subst. repeat split; auto.
    Qed.

    Lemma sorted_filter f l : sorted l -> sorted (filter f l).
    Proof.
      induction l as [|x l IH]; cbn; [auto|]. intros (H1 & H2).
      destruct (f x); cbn; auto. split; auto.
      rewrite Forall_forall in *. intros y Hy. apply filter_In in Hy. apply H1, Hy.
    Qed.

    Lemma sorted_NoDup l : (forall x, ~ R x x) -> sorted l -> NoDup l.
    Proof.
      intros Hirr. induction l as [|x l IH]; cbn; [constructor|]. intros (H1 & H2).
      constructor; auto. intros Hin. rewrite Forall_forall in H1. exact (Hirr x (H1 x Hin)).
    Qed.
  End Sorted.

  Lemma sorted_ext (R R' : A -> A -> Prop) l :
    (forall x y, In x l -> In y l -> R x y -> R' x y) -> sorted R l -> sorted R' l.
  Proof.
    induction l as [|x l IH]; cbn; [auto|]. intros H (H1 & H2). split.
    - rewrite Forall_forall in *. intros y Hy. apply H; auto.
    - apply IH; [intros a b Ha Hb; apply H; auto|exact H2].
  Qed.

  Lemma sorted_insert (R : A -> A -> Prop) l1 x l2 :
    sorted R (l1 ++ l2) -> Forall (fun a => R a x) l1 -> Forall (R x) l2 -> sorted R (l1 ++ x :: l2).
  Proof.
    rewrite !sorted_app. intros (H1 & H2 & H3) Hl Hr. cbn [sorted]. repeat split; auto.
    rewrite Forall_forall in *. intros a Ha. constructor; auto.
  Qed.

  Lemma sorted_remove (R : A -> A -> Prop) l1 x l2 : sorted R (l1 ++ x :: l2) -> sorted R (l1 ++ l2).
  Proof.
    rewrite !sorted_app. intros (H1 & (_ & H2) & H3). repeat split; auto.
    eapply Forall_impl; [|exact H3]. intros a Ha. exact (Forall_inv_tail Ha).
  Qed.

  Lemma find_app_none f l1 l2 : Forall (fun x => f x = false) l1 -> find f (l1 ++ l2) = find f l2.
  Proof. induction 1 as [|x l Hx _ IH]; cbn; [reflexivity|]. now rewrite Hx. Qed.

  Lemma find_hd f x l : f x = true -> find f (x :: l) = Some x.
  Proof. cbn. now intros ->. Qed.
End Lists.

Lemma filter_all {A} (f : A -> bool) l : (forall x, In x l -> f x = true) -> filter f l = l.
Proof.
  induction l as [|x l IH]; cbn; intros H; [reflexivity|].
  rewrite (H x (or_introl eq_refl)), IH; [reflexivity|]. intros y Hy. apply H. now right.
Qed.

Lemma filter_none {A} (f : A -> bool) l : (forall x, In x l -> f x = false) -> filter f l = [].
Proof. intros H. apply filter_nil_iff, Forall_forall, H. Qed.

Lemma find_none_intro {A} (f : A -> bool) l : (forall x, In x l -> f x = false) -> find f l = None.
Proof.
  induction l as [|x l IH]; cbn; intros H; [reflexivity|].
  rewrite (H x (or_introl eq_refl)). apply IH. intros y Hy. apply H. now right.
Qed.

Lemma map_filter_comm {A B} (g : A -> B) (f : B -> bool) l :
  filter f (map g l) = map g (filter (fun x => f (g x)) l).
Proof.
  induction l as [|x l IH]; cbn; [reflexivity|]. destruct (f (g x)); cbn; now rewrite IH.
Qed.

Lemma NoDup_app_iff {A} (a b : list A) : NoDup (a ++ b) <-> NoDup a /\ NoDup b /\ (forall x, In x a -> ~ In x b).
Proof.
  induction a as [|x a IH]; cbn [app].
  - split; [intros H; repeat split; [constructor|exact H|intros x []]|intros [_ [H _]]; exact H].
  - rewrite !NoDup_cons_iff, IH, in_app_iff. split.
    + intros [N [Ha [Hb D]]]. repeat split; try tauto.
      intros y [<-|Hy]; [tauto|apply D; exact Hy].
    + intros [[N Ha] [Hb D]]. repeat split; try tauto.
      * intros [H|H]; [tauto|]. apply (D x); [left; reflexivity|exact H].
      * intros y Hy. apply D. right; exact Hy.
Qed.

Lemma NoDup_app_l {A} (l1 l2 : list A) : NoDup (l1 ++ l2) -> NoDup l1.
Proof. intros H. apply NoDup_app_iff in H. apply H. Qed.

Lemma NoDup_app_r {A} (l1 l2 : list A) : NoDup (l1 ++ l2) -> NoDup l2.
Proof. intros H. apply NoDup_app_iff in H. apply H. Qed.

Lemma NoDup_app_disjoint {A} (l1 l2 : list A) x : NoDup (l1 ++ l2) -> In x l1 -> In x l2 -> False.
Proof. intros H. apply NoDup_app_iff in H. apply H. Qed.

Lemma NoDup_app_intro {A} (a b : list A) : NoDup a -> NoDup b -> (forall x, In x a -> ~ In x b) -> NoDup (a ++ b).
Proof. intros. apply NoDup_app_iff. auto. Qed.

Lemma NoDup_snoc {A} (l : list A) x : NoDup l -> ~ In x l -> NoDup (l ++ [x]).
Proof.
  intros H Hn. apply NoDup_app_intro; [exact H|constructor; [intros []|constructor]|].
  intros y Hy [<-|[]]. exact (Hn Hy).
Qed.

Lemma NoDup_map_filter {A B} (g : A -> B) (p : A -> bool) l : NoDup (map g l) -> NoDup (map g (filter p l)).
Proof.
  induction l as [|x l IH]; cbn; intros H; [exact H|]. apply NoDup_cons_iff in H as [Hn H].
  destruct (p x); [|exact (IH H)]. cbn. constructor; [|exact (IH H)].
  intros Hi. apply Hn. apply in_map_iff in Hi as (y & <- & Hy). apply in_map. apply filter_In in Hy. apply Hy.
Qed.

Lemma NoDup_map_inj {A B} (f : A -> B) l a b : NoDup (map f l) -> In a l -> In b l -> f a = f b -> a = b.
Proof.
  induction l as [|x l IH]; intros Hnd Ha Hb Hf; [destruct Ha|].
  cbn [map] in Hnd. apply NoDup_cons_iff in Hnd as [Hn Hnd].
  destruct Ha as [->|Ha]; destruct Hb as [->|Hb]; [reflexivity| | |apply IH; assumption].
  - exfalso. apply Hn. rewrite Hf. apply in_map. exact Hb.
  - exfalso. apply Hn. rewrite <- Hf. apply in_map. exact Ha.
Qed.

Lemma nth_error_Some_lt {A} (l : list A) i x : nth_error l i = Some x -> i < length l.
Proof. intros H. apply nth_error_Some. congruence. Qed.

Lemma split_nth {A} (l : list A) i d : i < length l -> l = firstn i l ++ nth i l d :: skipn (S i) l.
Proof.
  revert i. induction l as [|x l IH]; intros i H; cbn [length] in H; [lia|].
  destruct i as [|i]; cbn [firstn nth skipn app]; [reflexivity|].
  f_equal. apply IH. lia.
Qed.

Lemma firstn_S_nth {A} (l : list A) i d : i < length l -> firstn (S i) l = firstn i l ++ [nth i l d].
Proof.
  revert i. induction l as [|x l IH]; intros i H; cbn [length] in H; [lia|].
  destruct i as [|i]; cbn [firstn nth app]; [reflexivity|].
  f_equal. apply IH. lia.
Qed.

Lemma firstn_min {A} m (l : list A) : firstn (Nat.min m (length l)) l = firstn m l.
Proof.
  destruct (Nat.le_gt_cases m (length l)) as [H|H].
  - now rewrite Nat.min_l.
  - rewrite Nat.min_r by lia. now rewrite firstn_all, firstn_all2 by lia.
Qed.

Lemma combine_app {A B} (a b : list A) (a' b' : list B) :
  length a = length a' -> combine (a ++ b) (a' ++ b') = combine a a' ++ combine b b'.
Proof.
  revert a'; induction a as [|x a IH]; intros [|y a'] H; cbn in *; try lia; [reflexivity|].
  f_equal. apply IH. lia.
Qed.

Lemma Forall2_length {A B} (R : A -> B -> Prop) a b : Forall2 R a b -> length a = length b.
Proof. induction 1; cbn; congruence. Qed.

Lemma skipn_nth_error {A} (l : list A) : forall i x, nth_error l i = Some x -> skipn i l = x :: skipn (S i) l.
Proof.
  induction l as [|y l IH]; intros [|i] x H; try discriminate; [injection H as ->; reflexivity|].
  exact (IH i x H).
Qed.

Lemma in_firstn {A} (l : list A) k x : In x (firstn k l) -> In x l.
Proof. intros H. rewrite <- (firstn_skipn k l). apply in_or_app. left; exact H. Qed.
