(* Mem/MemInv.v — the representation invariant of the array-encoded skip list and its basic
   consequences.

   Ghost view of the arrays: a node is its index x in nodeData; hgt/nx/keyof/valof read its
   fields.  Inv d A L says: A lists the records ever allocated (pairwise disjoint, inside the
   arrays, above the head record), L ⊆ A lists the live nodes in strictly increasing key order,
   and for every level i < tMaxHeight the chain that starts at the head and follows next_i is
   exactly the sub-list of L of the nodes taller than i, ending in 0.  n and kvSize count L. *)
From GL Require Import Mem.MemDB Mem.ArrayLemmas Mem.ListLemmas.
From GL Require Mem.ListLemmas.
From Coq Require Import Lia ZifyBool.
Open Scope N_scope.

Definition hgt (nd : list N) (x : N) : N := rd nd (x + 3).
Definition nx (nd : list N) (x i : N) : N := rd nd (x + 4 + i).
Definition keyof (nd : list N) (kv : bytes) (x : N) : bytes :=
  sl kv (rd nd x) (rd nd x + rd nd (x + 1)).
Definition valof (nd : list N) (kv : bytes) (x : N) : bytes :=
  sl kv (rd nd x + rd nd (x + 1)) (rd nd x + rd nd (x + 1) + rd nd (x + 2)).
Definition kvof (nd : list N) (kv : bytes) (x : N) : bytes * bytes := (keyof nd kv x, valof nd kv x).

(* the nodes of l taller than i *)
Definition lvl (nd : list N) (i : N) (l : list N) : list N := filter (fun x => i <? hgt nd x) l.

(* following next_i from x visits exactly l and then points to y *)
Fixpoint path (nd : list N) (i x : N) (l : list N) (y : N) : Prop :=
  match l with
  | [] => nx nd x i = y
  | z :: l' => nx nd x i = z /\ path nd i z l' y
  end.

Fixpoint sum_kv (nd : list N) (l : list N) : Z :=
  match l with
  | [] => 0%Z
  | x :: l' => (Z.of_N (rd nd (x + 1)) + Z.of_N (rd nd (x + 2)) + sum_kv nd l')%Z
  end.

Section Inv.
  Variable c : comparer.
  Variable tmax : N.

  Definition node_ok (nd : list N) (kv : bytes) (mh x : N) : Prop :=
    4 + tmax <= x /\ 1 <= hgt nd x /\ hgt nd x <= mh /\ x + 4 + hgt nd x <= len nd /\
    rd nd x + rd nd (x + 1) + rd nd (x + 2) <= len kv.

  Definition disjoint (nd : list N) (A : list N) : Prop :=
    forall x y, In x A -> In y A -> x < y -> x + 4 + hgt nd x <= y.

  Definition key_sorted (nd : list N) (kv : bytes) (l : list N) : Prop :=
    sorted (fun x y => lt c (keyof nd kv x) (keyof nd kv y)) l.

  Record Inv (d : db) (A L : list N) : Prop := {
    inv_head : 4 + tmax <= len (nodeData d);
    inv_mh : 1 <= maxHeight d /\ maxHeight d <= tmax;
    inv_nodes : Forall (node_ok (nodeData d) (kvData d) (maxHeight d)) A;
    inv_disj : disjoint (nodeData d) A;
    inv_sub : incl L A;
    inv_sorted : key_sorted (nodeData d) (kvData d) L;
    inv_chain : forall i, i < tmax -> path (nodeData d) i 0 (lvl (nodeData d) i L) 0;
    inv_n : nEnt d = Z.of_nat (length L);
    inv_size : kvSize d = sum_kv (nodeData d) L
  }.

  Definition abs (d : db) (L : list N) : list (bytes * bytes) :=
    map (kvof (nodeData d) (kvData d)) L.

  Lemma path_app nd i x l1 l2 y :
    path nd i x (l1 ++ l2) y <-> path nd i x l1 (hd y l2) /\ path nd i (last l1 x) l2 y.
  Proof.
    revert x. induction l1 as [|a l1 IH]; intros x.
    - cbn. destruct l2 as [|z l2]; cbn; tauto.
    - cbn [app path]. rewrite IH. rewrite last_cons_default. tauto.
  Qed.

  Lemma path_app_cons nd i x l1 z l2 y :
    path nd i x (l1 ++ z :: l2) y <-> path nd i x l1 z /\ path nd i z l2 y.
  Proof.
    revert x. induction l1 as [|a l1 IH]; intros x; cbn; [tauto|]. rewrite IH. tauto.
  Qed.

  Lemma path_ext nd nd' i x l y :
    (forall u, In u (x :: l) -> nx nd' u i = nx nd u i) -> path nd i x l y -> path nd' i x l y.
  Proof.
    revert x. induction l as [|z l IH]; intros x H; cbn.
    - intros <-. apply H. left; reflexivity.
    - intros (H1 & H2). split.
      + rewrite H by (left; reflexivity). exact H1.
      + apply IH; [|exact H2]. intros u Hu. apply H. right; exact Hu.
  Qed.

  Lemma path_ext_from nd nd' i x x' l y :
    nx nd' x' i = nx nd x i -> (forall u, In u l -> nx nd' u i = nx nd u i) ->
    path nd i x l y -> path nd' i x' l y.
  Proof.
    intros Hx Hl. destruct l as [|z l]; cbn [path].
    - intros <-. exact Hx.
    - intros (H1 & H2). split; [rewrite Hx; exact H1|].
      exact (path_ext nd nd' i z l y Hl H2).
  Qed.

  Lemma path_last nd i x l y : path nd i x l y -> nx nd (last l x) i = y.
  Proof.
    revert x. induction l as [|z l IH]; intros x; cbn [path]; [auto|].
    intros (_ & H). rewrite last_cons_default. auto.
  Qed.

  Lemma path_hd nd i x l y : path nd i x l y -> nx nd x i = hd y l.
  Proof. destruct l; cbn; tauto. Qed.

  Lemma path_upd_last nd nd' i x l y y' :
    NoDup (x :: l) ->
    (forall u, In u (x :: l) -> u <> last l x -> nx nd' u i = nx nd u i) ->
    nx nd' (last l x) i = y' ->
    path nd i x l y -> path nd' i x l y'.
  Proof.
    revert x. induction l as [|z l IH]; intros x Hnd H Hl; cbn [path].
    - intros _. exact Hl.
    - rewrite last_cons_default in *. intros (H1 & H2).
      apply NoDup_cons_iff in Hnd as [Hni Hnd']. split.
      + rewrite H; [exact H1|left; reflexivity|].
        intros E. apply Hni.
        rewrite E at 1. destruct l as [|w l]; [left; reflexivity|].
        right. apply last_in. discriminate.
      + apply IH; auto.
        intros u Hu Hne. apply H; [right; exact Hu|exact Hne].
  Qed.

  Lemma lvl_app nd i l1 l2 : lvl nd i (l1 ++ l2) = lvl nd i l1 ++ lvl nd i l2.
  Proof. apply filter_app. Qed.

  Lemma lvl_ext nd nd' i l :
    (forall x, In x l -> hgt nd' x = hgt nd x) -> lvl nd' i l = lvl nd i l.
  Proof.
    intros H. unfold lvl. apply filter_ext_in. intros x Hx. now rewrite H.
  Qed.

  Lemma lvl_incl nd i l x : In x (lvl nd i l) -> In x l /\ i < hgt nd x.
  Proof. unfold lvl. rewrite filter_In. intros (H1 & H2). split; [exact H1|lia]. Qed.

  Lemma lvl0 nd l : Forall (fun x => 1 <= hgt nd x) l -> lvl nd 0 l = l.
  Proof.
    intros H. unfold lvl. apply ListLemmas.filter_all, Forall_forall. eapply Forall_impl; [|exact H]. cbn. intros; lia.
  Qed.

  Lemma lvl_high nd i l : Forall (fun x => hgt nd x <= i) l -> lvl nd i l = [].
  Proof.
    intros H. unfold lvl. apply filter_nil_iff. eapply Forall_impl; [|exact H]. cbn. intros; lia.
  Qed.

  Lemma last_lvl_snoc nd i l x : i < hgt nd x -> last (lvl nd i (l ++ [x])) 0 = x.
  Proof.
    intros H. unfold lvl. rewrite filter_snoc.
    replace (i <? hgt nd x) with true by lia. apply last_snoc.
  Qed.

  Lemma sum_kv_app nd l1 l2 : sum_kv nd (l1 ++ l2) = (sum_kv nd l1 + sum_kv nd l2)%Z.
  Proof. induction l1 as [|x l1 IH]; cbn [app sum_kv]; lia. Qed.

  Lemma sum_kv_ext nd nd' l :
    (forall x, In x l -> rd nd' (x + 1) = rd nd (x + 1) /\ rd nd' (x + 2) = rd nd (x + 2)) ->
    sum_kv nd' l = sum_kv nd l.
  Proof.
    induction l as [|x l IH]; intros H; cbn [sum_kv]; [reflexivity|].
    destruct (H x (or_introl eq_refl)) as (-> & ->). rewrite IH; [reflexivity|].
    intros y Hy. apply H. right; exact Hy.
  Qed.

  Section WithInv.
    Variables (d : db) (A L : list N).
    Hypothesis I : Inv d A L.

    Lemma inv_node_A x : In x A -> node_ok (nodeData d) (kvData d) (maxHeight d) x.
    Proof. intros H. exact (proj1 (Forall_forall _ _) (inv_nodes _ _ _ I) x H). Qed.

    Lemma inv_node_L x : In x L -> node_ok (nodeData d) (kvData d) (maxHeight d) x.
    Proof. intros H. apply inv_node_A. apply (inv_sub _ _ _ I). exact H. Qed.

    Lemma inv_nonzero x : In x A -> x <> 0.
    Proof. intros H. destruct (inv_node_A x H) as (H1 & _). destruct (inv_mh _ _ _ I). lia. Qed.

    Lemma inv_L_heights : Forall (fun x => 1 <= hgt (nodeData d) x) L.
    Proof. apply Forall_forall. intros x Hx. destruct (inv_node_L x Hx) as (_ & H & _). exact H. Qed.

    Lemma inv_lvl0 : lvl (nodeData d) 0 L = L.
    Proof. apply lvl0. exact inv_L_heights. Qed.
  End WithInv.
End Inv.
