(* Store/OpenTotalProofs.v — read-write Open (Store/OpenPath.v open_rw) RETURNS a DB on every well-formed crash
   image: totality.

   The side conditions, each stated on the image and discharged through the whole of recoverJournal by one
   invariant (tinv):
     - sessionRecord.encode is given no negative number: the numbers the manifest prefix leaves (journal number,
       next file number, every live table's number and size) are not negative, and everything the recovery adds is
       a counter value above them or a length;
     - versionStaging / setCompPtr index no negative level: the recovery adds tables at level 0 only and fills the
       snapshot record with the version's own level positions;
     - session.flushMemdb's table writer accepts the buffer (Store/OpenRwProofs.v flush_memdb_total);
     - checkAndCleanFiles finds every table the final version names: the tables the manifest prefix names exist in
       the image (image_tabs_ok), the recovery's own tables are created before the edit that names them, nothing
       removes a table file, and the storage lists a name once (NoDup of the names).

   Section OpenTotalRefines composes totality with Store/OpenCrashProofs.v open_rw_refines_recover_partial. *)
From Coq Require Import List NArith ZArith Bool Lia Permutation.
From GL Require Import Base.Bytes Base.Order Codec.IKey Codec.Journal Codec.SessionRecordSpec Lsm.Lsm Lsm.ReadPath
  Lsm.BatchWriteProofs Store.CrashProofs Store.CrashBytes Store.ManifestReplayProofs Store.OpenPath
  Store.OpenJournalProofs Store.OpenPathProofs Store.OpenRwProofs.
From GL Require Mem.ListLemmas.
From GL Require Mem.MemDB Store.SweepProofs.
Import ListNotations.
Open Scope N_scope.

Lemma f_lookup_set_same fs x d : f_lookup (f_set fs x d) x = Some d.
Proof.
  unfold f_set. cbn [f_lookup].
  replace (SW.fd_eqb x x) with true; [reflexivity|]. symmetry. apply SweepProofs.fd_eqb_eq. reflexivity.
Qed.

Lemma f_lookup_set_keeps fs x d y : f_lookup fs y <> None -> f_lookup (f_set fs x d) y <> None.
Proof.
  intros H. destruct (SW.fd_eqb y x) eqn:E.
  - apply SweepProofs.fd_eqb_eq in E. subst y. rewrite f_lookup_set_same. discriminate.
  - rewrite f_lookup_set_other; [exact H|]. intros ->. rewrite (SweepProofs.fd_eqb_refl x) in E. discriminate.
Qed.

Lemma in_keys_del fs x k : In k (map fst (f_del fs x)) -> In k (map fst fs) /\ k <> x.
Proof.
  unfold f_del. intros H. apply in_map_iff in H as (e & <- & He). apply filter_In in He as (He & Hn).
  split; [apply in_map; exact He|]. intros E. rewrite E in Hn. rewrite (SweepProofs.fd_eqb_refl x) in Hn. discriminate.
Qed.

Lemma nodup_del fs x : NoDup (map fst fs) -> NoDup (map fst (f_del fs x)).
Proof. apply ListLemmas.NoDup_map_filter. Qed.

Lemma nodup_set fs x d : NoDup (map fst fs) -> NoDup (map fst (f_set fs x d)).
Proof.
  intros H. unfold f_set. cbn [map fst]. constructor; [|apply nodup_del; exact H].
  intros Hin. exact (proj2 (in_keys_del fs x x Hin) eq_refl).
Qed.

Lemma fd_insert_perm x l : Permutation (x :: l) (fd_insert x l).
Proof.
  induction l as [|y l IH]; cbn [fd_insert]; [apply Permutation_refl|].
  destruct (fd_lt x y); [apply Permutation_refl|].
  eapply perm_trans; [apply perm_swap|]. apply perm_skip. exact IH.
Qed.

Lemma f_list_perm fs : Permutation (map fst fs) (f_list fs).
Proof.
  unfold f_list. induction (map fst fs) as [|x l IH]; cbn [fold_right]; [apply Permutation_refl|].
  eapply perm_trans; [apply perm_skip; exact IH|]. apply fd_insert_perm.
Qed.

Lemma f_lookup_in fs x : f_lookup fs x <> None -> In x (map fst fs).
Proof.
  induction fs as [|[y d] fs IH]; cbn [f_lookup map fst]; [intros H; contradiction H; reflexivity|].
  destruct (SW.fd_eqb x y) eqn:E; [intros _; left; symmetry; apply SweepProofs.fd_eqb_eq; exact E|].
  intros H. right. exact (IH H).
Qed.

(* table files are kept from fs to fs' *)
Definition tabs_kept (fs fs' : files) : Prop :=
  forall t, f_lookup fs (SW.FTable, t) <> None -> f_lookup fs' (SW.FTable, t) <> None.

Lemma tabs_kept_refl fs : tabs_kept fs fs.
Proof. intros t H. exact H. Qed.
Lemma tabs_kept_trans a b c : tabs_kept a b -> tabs_kept b c -> tabs_kept a c.
Proof. intros H1 H2 t H. exact (H2 t (H1 t H)). Qed.
Lemma tabs_kept_set fs x d : tabs_kept fs (f_set fs x d).
Proof. intros t H. apply f_lookup_set_keeps. exact H. Qed.
Lemma tabs_kept_del_manifest fs m : tabs_kept fs (f_del fs (SW.FManifest, m)).
Proof. intros t H. rewrite f_lookup_del_other; [exact H|discriminate]. Qed.
Lemma tabs_kept_del_journal fs m : tabs_kept fs (f_del fs (SW.FJournal, m)).
Proof. intros t H. rewrite f_lookup_del_other; [exact H|discriminate]. Qed.

Lemma ins_by_in less (t x : SR.atrec) l : In x (ins_by less t l) <-> x = t \/ In x l.
Proof.
  induction l as [|y l IH]; cbn [ins_by In]; [intuition|].
  destruct (less t y); cbn [In]; [intuition|]. rewrite IH. intuition.
Qed.

Lemma sort_by_in less (x : SR.atrec) l : In x (sort_by less l) <-> In x l.
Proof.
  unfold sort_by. induction l as [|y l IH]; cbn [fold_right In]; [reflexivity|].
  rewrite ins_by_in, IH. intuition.
Qed.

Lemma sort_level_in c i (x : SR.atrec) l : In x (sort_level c i l) <-> In x l.
Proof. destruct i; cbn [sort_level]; apply sort_by_in. Qed.

Lemma trim_levels_in L : forall l, In l (SR.trim_levels L) -> In l L.
Proof.
  induction L as [|x r IH]; cbn [SR.trim_levels]; [intros l []|].
  intros l. destruct (SR.trim_levels r) as [|y r'] eqn:E.
  - destruct x; [intros []|]. intros [<-|[]]. left; reflexivity.
  - intros [<-|H]; [left; reflexivity|right; apply IH; exact H].
Qed.

Lemma nth_in_concat {A} (L : list (list A)) i x : In x (nth i L []) -> In x (concat L).
Proof.
  intros H. destruct (nth_in_or_default i L []) as [Hin|E]; [|rewrite E in H; destruct H].
  apply in_concat. exists (nth i L []). split; assumption.
Qed.

Section Staging.
  Variable rp : SR.rparams.

  Lemma pfold_add_total adds : Forall (fun t => (0 <= SR.at_level t)%Z) adds -> forall stg,
    exists stg', SR.pfold SR.commit_add adds stg = SR.POk stg' /\
      forall i x, In x (SR.sc_added (nth i stg' SR.sc_empty)) ->
                  In x (SR.sc_added (nth i stg SR.sc_empty)) \/ In (snd x) adds.
  Proof.
    induction 1 as [|t adds Ht Hr IH]; intros stg; cbn [SR.pfold].
    - exists stg. split; [reflexivity|]. intros i x H. left; exact H.
    - unfold SR.commit_add at 1, SR.grow_levels. replace (SR.at_level t <? 0)%Z with false by lia. cbn [SR.pbind].
      set (n := Z.to_nat (SR.at_level t)).
      destruct (IH (SR.upd_nth n (fun sc => SR.mksc (SR.map_put (SR.at_num t) t (SR.sc_added sc))
                                                      (SR.set_del (SR.at_num t) (SR.sc_deleted sc)))
                      (stg ++ repeat SR.sc_empty (S n - length stg)))) as (stg' & E & Hin).
      exists stg'. split; [exact E|]. intros i x Hx. destruct (Hin i x Hx) as [H|H]; [|right; right; exact H].
      rewrite nth_upd_grow in H. destruct (Nat.eqb_spec i n) as [->|Hne]; [|left; exact H].
      cbn [SR.sc_added SR.map_put] in H. destruct H as [<-|H]; [right; left; reflexivity|].
      left. apply filter_In in H. exact (proj1 H).
  Qed.

  Lemma finish_level_in base sc x : In x (SR.finish_level base sc) -> In x base \/ In x (map snd (SR.sc_added sc)).
  Proof.
    unfold SR.finish_level. destruct (SR.sc_added sc) as [|a l].
    - destruct (SR.sc_deleted sc); [intros H; left; exact H|].
      intros H. apply in_app_or in H as [H|H]; [left; apply filter_In in H; exact (proj1 H)|right; exact H].
    - intros H. apply in_app_or in H as [H|H]; [left; apply filter_In in H; exact (proj1 H)|right; exact H].
  Qed.

  Lemma finish_go_in c base stg x : In x (concat (finish_go c base stg)) ->
    In x (concat base) \/ exists i y, In y (SR.sc_added (nth i stg SR.sc_empty)) /\ snd y = x.
  Proof.
    unfold finish_go. intros H. apply in_concat in H as (l & Hl & Hx).
    apply trim_levels_in in Hl. apply in_map_iff in Hl as (i & <- & _).
    unfold finish_level_go in Hx.
    assert (Hf : In x (SR.finish_level (nth i base []) (nth i stg SR.sc_empty))).
    { destruct (SR.sc_added (nth i stg SR.sc_empty)); [exact Hx|]. apply sort_level_in in Hx. exact Hx. }
    apply finish_level_in in Hf as [Hf|Hf].
    - left. exact (nth_in_concat base i x Hf).
    - right. apply in_map_iff in Hf as (y & Ey & Hy). exists i, y. split; assumption.
  Qed.

  Lemma pfold_cps_total cs : Forall (fun c => (0 <= SR.cp_level c)%Z) cs -> forall cps,
    exists cps', SR.pfold SR.set_comp_ptr cs cps = SR.POk cps'.
  Proof.
    induction 1 as [|x cs Hx Hr IH]; intros cps; cbn [SR.pfold]; [eexists; reflexivity|].
    unfold SR.set_comp_ptr at 1. replace (SR.cp_level x <? 0)%Z with false by lia. cbn [SR.pbind]. apply IH.
  Qed.

  Lemma oconcat_some l : Forall (fun x : option bytes => x <> None) l -> exists b, SR.oconcat l = Some b.
  Proof.
    induction 1 as [|x l Hx Hl (b & E)]; cbn [SR.oconcat]; [eexists; reflexivity|].
    destruct x as [a|]; [|contradiction Hx; reflexivity]. cbn [SR.obind]. rewrite E. cbn [SR.obind]. eexists; reflexivity.
  Qed.

  Lemma put_varint_some x : (0 <= x)%Z -> exists b, SR.put_varint x = Some b.
  Proof. intros H. unfold SR.put_varint. replace (x <? 0)%Z with false by lia. eexists; reflexivity. Qed.
End Staging.

Section OpenTotal.
  Variable jcrc : bytes -> N.
  Variable jp : jparams.
  Hypothesis jpok : jparams_ok jp.
  Variable rp : SR.rparams.
  Hypothesis rpok : rparams_ok rp.
  Variable kp : kparams.
  Hypothesis kpok : kparams_ok kp.
  Hypothesis seek_val : keyTypeSeek kp <= keyTypeVal kp.
  Variable mp : MemDB.mparams.
  Hypothesis mpok : MemDB.mparams_ok mp.
  Variable tp : Table.tparams.
  Variable tcrc : bytes -> N.
  Variable compress : bytes -> bytes.
  Variable snappy : bool.
  Variable fgen : option (bytes * (list (N * list bytes) -> bytes)).
  Variable blockSize ri : N.
  Variable c : comparer.
  Hypothesis cok : comparer_ok c.

  Local Notation bhl := 12.
  Local Notation minv := (OpenJournalProofs.mem_inv kp mp c).
  Local Notation jb_ok := (OpenJournalProofs.jb_ok kp).
  Local Notation jb_enc := (OpenJournalProofs.jb_enc kp).
  Local Notation newman := (new_manifest jcrc jp rp).
  Local Notation flushman := (flush_manifest jcrc jp rp).
  Local Notation commitm := (OpenPath.commit jcrc jp rp c).
  Local Notation commitrj := (commit_rj jcrc jp rp c).
  Local Notation flushm := (flush_memdb rp kp mp tp tcrc compress snappy fgen blockSize ri c).
  Local Notation rrec := (replay_record rp kp bhl mp tp tcrc compress snappy fgen blockSize ri c).
  Local Notation loop_rw := (rj_loop jcrc jp rp kp bhl mp tp tcrc compress snappy fgen blockSize ri c).
  Local Notation openb := (open_bytes jcrc jp rp kp bhl mp tp tcrc compress snappy fgen blockSize ri c).
  Local Notation image_ok := (OpenPathProofs.image_ok jcrc jp rp kp).
  Local Notation manifest_ok := (OpenPathProofs.manifest_ok rp).
  Local Notation jfile_ok := (OpenPathProofs.jfile_ok jcrc jp kp).

  (* a table record: number and size fit (not negative), its file exists *)
  Definition at_nn (fs : files) (t : SR.atrec) : Prop :=
    (0 <= SR.at_num t)%Z /\ (0 <= SR.at_size t)%Z /\ f_lookup fs (SW.FTable, Z.to_N (SR.at_num t)) <> None.

  Definition rec_ok (fs : files) (r : SR.srec) : Prop :=
    (0 <= SR.sr_journal r)%Z /\ (0 <= SR.sr_nextfile r)%Z /\ SR.sr_dels r = [] /\
    Forall (fun t => (0 <= SR.at_level t)%Z /\ at_nn fs t) (SR.sr_adds r) /\
    Forall (fun x => (0 <= SR.cp_level x)%Z) (SR.sr_cps r).

  Definition sess_ok (fs : files) (s : sess) : Prop :=
    (0 <= s_next s)%Z /\ (0 <= s_jnum s)%Z /\ Forall (at_nn fs) (concat (s_levels s)).

  Definition cst_ok (cs : cst) : Prop := NoDup (map fst (c_files cs)) /\ sess_ok (c_files cs) (c_sess cs).

  (* the invariant of recoverJournal's state: the buffer invariant of the replay (OpenJournalProofs.mem_inv), the
     storage lists a name once, and the numbers and tables of the session and of the pending record fit *)
  Definition tinv (st : rj) : Prop := minv st /\ cst_ok (r_c st) /\ rec_ok (c_files (r_c st)) (r_rec st).

  Lemma at_nn_mono fs fs' t : tabs_kept fs fs' -> at_nn fs t -> at_nn fs' t.
  Proof. intros K (A & B & C). split; [exact A|]. split; [exact B|]. exact (K _ C). Qed.

  Lemma rec_ok_mono fs fs' r : tabs_kept fs fs' -> rec_ok fs r -> rec_ok fs' r.
  Proof.
    intros K (A & B & C & D & E). split; [exact A|]. split; [exact B|]. split; [exact C|]. split; [|exact E].
    eapply Forall_impl; [|exact D]. intros t (L & H). split; [exact L|exact (at_nn_mono _ _ _ K H)].
  Qed.

  Lemma levels_ok_mono fs fs' (v : list (list SR.atrec)) : tabs_kept fs fs' ->
    Forall (at_nn fs) (concat v) -> Forall (at_nn fs') (concat v).
  Proof. intros K H. eapply Forall_impl; [|exact H]. intros t. apply at_nn_mono. exact K. Qed.

  Lemma rec_ok_set_journal fs r n : (0 <= n)%Z -> rec_ok fs r -> rec_ok fs (SR.set_journal rp r n).
  Proof. intros Hn (A & B & C & D & E). repeat split; cbn; assumption. Qed.
  Lemma rec_ok_set_prevjournal fs r n : rec_ok fs r -> rec_ok fs (SR.set_prevjournal rp r n).
  Proof. intros (A & B & C & D & E). repeat split; cbn; assumption. Qed.
  Lemma rec_ok_set_seq fs r n : rec_ok fs r -> rec_ok fs (SR.set_seq rp r n).
  Proof. intros (A & B & C & D & E). repeat split; cbn; assumption. Qed.
  Lemma rec_ok_set_nextfile fs r n : (0 <= n)%Z -> rec_ok fs r -> rec_ok fs (SR.set_nextfile rp r n).
  Proof. intros Hn (A & B & C & D & E). repeat split; cbn; assumption. Qed.
  Lemma rec_ok_set_comparer fs r n : rec_ok fs r -> rec_ok fs (SR.set_comparer rp r n).
  Proof. intros (A & B & C & D & E). repeat split; cbn; assumption. Qed.
  Lemma rec_ok_reset_added fs r : rec_ok fs r -> rec_ok fs (SR.reset_added rp r).
  Proof. intros (A & B & C & D & E). repeat split; cbn; try assumption. constructor. Qed.
  Lemma rec_ok_add_table fs r t : (0 <= SR.at_level t)%Z -> at_nn fs t -> rec_ok fs r -> rec_ok fs (SR.add_table rp r t).
  Proof.
    intros L H (A & B & C & D & E). repeat split; cbn; try assumption.
    apply Forall_app. split; [exact D|]. constructor; [split; assumption|constructor].
  Qed.
  Lemma rec_ok_add_comp_ptr fs r x : (0 <= SR.cp_level x)%Z -> rec_ok fs r -> rec_ok fs (SR.add_comp_ptr rp r x).
  Proof.
    intros L (A & B & C & D & E). repeat split; cbn; try assumption.
    apply Forall_app. split; [exact E|]. constructor; [exact L|constructor].
  Qed.
  Lemma rec_ok_empty fs : rec_ok fs SR.sr_empty.
  Proof. repeat split; cbn; try lia; constructor. Qed.

  Lemma rec_ok_add_cptrs fs cps : forall level r, (0 <= level)%Z -> rec_ok fs r -> rec_ok fs (add_cptrs rp level cps r).
  Proof.
    induction cps as [|[ik|] cps IH]; intros level r Hl H; cbn [add_cptrs]; [exact H| |].
    - apply IH; [lia|]. apply rec_ok_add_comp_ptr; [cbn; exact Hl|exact H].
    - apply IH; [lia|exact H].
  Qed.

  Lemma rec_ok_fill fs s r snapshot name : (0 <= s_next s)%Z -> (0 <= s_jnum s)%Z -> rec_ok fs r ->
    rec_ok fs (fill_record rp s r snapshot name).
  Proof.
    intros Hn Hj H. unfold fill_record.
    pose proof (rec_ok_set_nextfile fs r (s_next s) Hn H) as H1.
    destruct snapshot; [|exact H1].
    apply rec_ok_set_comparer. apply rec_ok_add_cptrs; [lia|].
    set (r2 := if SR.has _ (SR.tJournalNum rp) then _ else _).
    assert (H2 : rec_ok fs r2) by (unfold r2; destruct (SR.has _ _); [exact H1|apply rec_ok_set_journal; assumption]).
    destruct (SR.has r2 _); [exact H2|apply rec_ok_set_seq; exact H2].
  Qed.

  Lemma rec_ok_vfill fs v r : Forall (at_nn fs) (concat v) -> rec_ok fs r -> rec_ok fs (v_fill_record rp v r).
  Proof.
    intros Hv. unfold v_fill_record. set (listed := map SR.at_num (SR.sr_adds r)). clearbody listed.
    assert (Hc : forall lt, In lt (combine (seq 0 (length v)) v) -> forall t, In t (snd lt) -> at_nn fs t).
    { intros [i ts] Hin t Ht. apply in_combine_r in Hin. rewrite Forall_forall in Hv. apply Hv.
      apply in_concat. exists ts. split; assumption. }
    revert r. induction (combine (seq 0 (length v)) v) as [|lt l IH]; intros r Hr; cbn [fold_left]; [exact Hr|].
    apply IH; [intros x Hx; apply Hc; right; exact Hx|].
    assert (Ht : forall t, In t (snd lt) -> at_nn fs t) by (apply Hc; left; reflexivity).
    clear IH Hc. revert r Hr. induction (snd lt) as [|t ts IHt]; intros r Hr; cbn [fold_left]; [exact Hr|].
    apply IHt; [intros x Hx; apply Ht; right; exact Hx|].
    destruct (SR.memZ _ _); [exact Hr|].
    destruct (Ht t (or_introl eq_refl)) as (A & B & C).
    apply rec_ok_add_table; [cbn; lia| |exact Hr]. split; [exact A|]. split; [exact B|exact C].
  Qed.

  Lemma encode_total fs r : rec_ok fs r -> exists b, SR.encode rp r = Some b.
  Proof.
    intros (A & B & C & D & E). unfold SR.encode. apply oconcat_some.
    constructor; [destruct (SR.has r _); discriminate|].
    constructor.
    { destruct (SR.has r _); [|discriminate]. destruct (put_varint_some _ A) as (b & ->). discriminate. }
    constructor.
    { destruct (SR.has r _); [|discriminate]. destruct (put_varint_some _ B) as (b & ->). discriminate. }
    constructor; [destruct (SR.has r _); discriminate|].
    rewrite C. cbn [map app]. apply Forall_app. split.
    - apply Forall_forall. intros x Hx. apply in_map_iff in Hx as (y & <- & _). discriminate.
    - apply Forall_forall. intros x Hx. apply in_map_iff in Hx as (t & <- & Ht).
      rewrite Forall_forall in D. destruct (D t Ht) as (_ & N1 & N2 & _).
      unfold SR.enc_at. destruct (put_varint_some _ N1) as (b1 & ->). destruct (put_varint_some _ N2) as (b2 & ->).
      discriminate.
  Qed.

  Lemma record_commited_total fs s r : rec_ok fs r -> (0 <= s_jnum s)%Z ->
    exists s', record_commited rp s r = OOk s' /\ s_next s' = s_next s /\ (0 <= s_jnum s')%Z /\
               s_levels s' = s_levels s /\ s_manfd s' = s_manfd s /\ s_hasman s' = s_hasman s.
  Proof.
    intros (A & B & C & D & E) Hj. unfold record_commited.
    destruct (pfold_cps_total (SR.sr_cps r) E (s_cptrs s)) as (cps & ->).
    eexists. split; [reflexivity|]. cbn [s_next s_jnum s_levels s_manfd s_hasman].
    repeat split; try reflexivity. destruct (SR.has r _); assumption.
  Qed.

  Lemma new_manifest_total name rec v st :
    cst_ok st -> rec_ok (c_files st) rec -> Forall (at_nn (c_files st)) (concat v) ->
    exists st' rec', newman name rec v st = OOk (st', rec') /\
      NoDup (map fst (c_files st')) /\ tabs_kept (c_files st) (c_files st') /\ rec_ok (c_files st') rec' /\
      (0 <= s_next (c_sess st'))%Z /\ (0 <= s_jnum (c_sess st'))%Z.
  Proof.
    intros (Hnd & Hn & Hj & Hlv) Hr Hv. unfold new_manifest.
    set (s := c_sess st) in *.
    set (s1 := mkSess (s_next s + 1) _ _ _ _ _ _ _ _).
    set (rec' := v_fill_record rp v (fill_record rp s1 rec true name)).
    assert (Hr' : rec_ok (c_files st) rec').
    { unfold rec'. apply rec_ok_vfill; [exact Hv|]. apply rec_ok_fill; [unfold s1; cbn; lia|exact Hj|exact Hr]. }
    destruct (encode_total _ _ Hr') as (b & Eb). rewrite Eb.
    destruct (record_commited_total _ s1 rec' Hr' Hj) as (s2 & E2 & N2 & J2 & _). rewrite E2. cbn [obind].
    set (fs1 := f_set (c_files st) _ _).
    assert (K1 : tabs_kept (c_files st) fs1) by apply tabs_kept_set.
    assert (D1 : NoDup (map fst fs1)) by (apply nodup_set; exact Hnd).
    destruct (s_hasman s || negb (s_manfd s <? 0)%Z).
    - eexists. exists rec'. split; [reflexivity|]. cbn [c_files c_sess s_next s_jnum s_levels].
      assert (K2 : tabs_kept (c_files st) (f_del fs1 (SW.FManifest, Z.to_N (s_manfd s)))).
      { eapply tabs_kept_trans; [exact K1|apply tabs_kept_del_manifest]. }
      split; [apply nodup_del; exact D1|]. split; [exact K2|]. split; [exact (rec_ok_mono _ _ _ K2 Hr')|].
      split; [rewrite N2; unfold s1; cbn; lia|exact J2].
    - eexists. exists rec'. split; [reflexivity|]. cbn [c_files c_sess s_next s_jnum s_levels].
      split; [exact D1|]. split; [exact K1|]. split; [exact (rec_ok_mono _ _ _ K1 Hr')|].
      split; [rewrite N2; unfold s1; cbn; lia|exact J2].
  Qed.

  Lemma flush_manifest_total name rec st :
    cst_ok st -> rec_ok (c_files st) rec ->
    exists st' rec', flushman name rec st = OOk (st', rec') /\
      NoDup (map fst (c_files st')) /\ tabs_kept (c_files st) (c_files st') /\ rec_ok (c_files st') rec' /\
      (0 <= s_next (c_sess st'))%Z /\ (0 <= s_jnum (c_sess st'))%Z.
  Proof.
    intros (Hnd & Hn & Hj & Hlv) Hr. unfold flush_manifest.
    set (s := c_sess st) in *.
    set (rec' := fill_record rp s rec false name).
    assert (Hr' : rec_ok (c_files st) rec') by (unfold rec'; apply rec_ok_fill; assumption).
    destruct (encode_total _ _ Hr') as (b & Eb). rewrite Eb.
    destruct (record_commited_total _ s rec' Hr' Hj) as (s2 & E2 & N2 & J2 & _). rewrite E2. cbn [obind].
    eexists. exists rec'. split; [reflexivity|]. cbn [c_files c_sess s_next s_jnum s_levels].
    assert (K1 : tabs_kept (c_files st) (f_set (c_files st) (SW.FManifest, Z.to_N (s_manfd s)) (man_bytes jcrc jp (s_manrecs s ++ [b]))))
      by apply tabs_kept_set.
    split; [apply nodup_set; exact Hnd|]. split; [exact K1|]. split; [exact (rec_ok_mono _ _ _ K1 Hr')|].
    split; [rewrite N2; exact Hn|exact J2].
  Qed.

  Lemma spawn_total fs base rec : rec_ok fs rec -> Forall (at_nn fs) (concat base) ->
    exists nv, spawn c base rec = OOk nv /\ Forall (at_nn fs) (concat nv).
  Proof.
    intros (A & B & C & D & E) Hb. unfold spawn, SR.commit. rewrite C. cbn [SR.pfold SR.pbind].
    assert (Dl : Forall (fun t => (0 <= SR.at_level t)%Z) (SR.sr_adds rec)).
    { eapply Forall_impl; [|exact D]. intros t H. exact (proj1 H). }
    destruct (pfold_add_total (SR.sr_adds rec) Dl []) as (stg & -> & Hin).
    eexists. split; [reflexivity|]. apply Forall_forall. intros x Hx.
    apply finish_go_in in Hx as [Hx|(i & y & Hy & <-)].
    - rewrite Forall_forall in Hb. exact (Hb x Hx).
    - destruct (Hin i y Hy) as [H|H]; [destruct i; destruct H|].
      rewrite Forall_forall in D. exact (proj2 (D _ H)).
  Qed.

  Lemma commit_total o rec st : cst_ok st -> rec_ok (c_files st) rec ->
    exists st' rec', commitm o rec st = OOk (st', rec') /\ cst_ok st' /\ rec_ok (c_files st') rec'.
  Proof.
    intros Hc Hr. pose proof Hc as (Hnd & Hn & Hj & Hlv). unfold OpenPath.commit.
    destruct (spawn_total _ _ _ Hr Hlv) as (nv & -> & Hnv). cbn [obind].
    set (r := if negb (s_hasman (c_sess st)) then _ else _).
    assert (R : exists st1 rec1, r = OOk (st1, rec1) /\
                  NoDup (map fst (c_files st1)) /\ tabs_kept (c_files st) (c_files st1) /\ rec_ok (c_files st1) rec1 /\
                  (0 <= s_next (c_sess st1))%Z /\ (0 <= s_jnum (c_sess st1))%Z).
    { unfold r. destruct (negb (s_hasman (c_sess st))); [exact (new_manifest_total (oo_cmp_name o) rec nv st Hc Hr Hnv)|].
      destruct (oo_maxman o <=? _)%Z; [|exact (flush_manifest_total (oo_cmp_name o) rec st Hc Hr)].
      set (nr3 := if SR.has rec (SR.tSeqNum rp) then _ else _).
      assert (Hnr : rec_ok (c_files st) nr3).
      { unfold nr3. destruct Hr as (A & _).
        destruct (SR.has rec (SR.tJournalNum rp)), (SR.has rec (SR.tPrevJournalNum rp)), (SR.has rec (SR.tSeqNum rp));
          repeat first [apply rec_ok_set_seq | apply rec_ok_set_prevjournal | apply rec_ok_set_journal; [exact A|] | apply rec_ok_empty]. }
      destruct (new_manifest_total (oo_cmp_name o) nr3 nv st Hc Hnr Hnv) as (st1 & rec1 & -> & D1 & K1 & _ & N1 & J1).
      exists st1, rec. split; [reflexivity|]. split; [exact D1|]. split; [exact K1|]. split; [exact (rec_ok_mono _ _ _ K1 Hr)|].
      split; [exact N1|exact J1]. }
    destruct R as (st1 & rec1 & -> & D1 & K1 & R1 & N1 & J1). cbn [obind].
    eexists. exists rec1. split; [reflexivity|]. split; [|exact R1].
    split; [exact D1|]. split; [exact N1|]. split; [exact J1|exact (levels_ok_mono _ _ _ K1 Hnv)].
  Qed.

  Lemma minv_same (a b : rj) : r_seq b = r_seq a -> r_mdb b = r_mdb a -> r_hts b = r_hts a -> minv a -> minv b.
  Proof. intros E1 E2 E3 H. unfold OpenJournalProofs.mem_inv in *. rewrite E1, E2, E3. exact H. Qed.

  Lemma commit_rj_total o j a : tinv a ->
    exists b, commitrj o j a = OOk b /\ tinv b.
  Proof.
    intros (Hm & Hc & Hr). unfold commit_rj.
    assert (Hr' : rec_ok (c_files (r_c a)) (SR.set_seq rp (SR.set_journal rp (r_rec a) (Z.of_N j)) (r_seq a))).
    { apply rec_ok_set_seq. apply rec_ok_set_journal; [lia|exact Hr]. }
    destruct (commit_total o _ (r_c a) Hc Hr') as (cs & rec & -> & Hc' & Hrr). cbn [obind fst snd].
    eexists. split; [reflexivity|]. split; [exact Hm|]. split; [exact Hc'|exact Hrr].
  Qed.

  Lemma flush_memdb_total_inv st : tinv st ->
    exists st', flushm st = OOk st' /\ tinv st'.
  Proof.
    intros (Hm & (Hnd & Hn & Hj & Hlv) & Hr).
    destruct (flush_memdb_total rp kp seek_val mp mpok tp tcrc compress snappy fgen blockSize ri c st (proj1 Hm)) as (st' & E).
    exists st'. split; [exact E|].
    revert E. unfold flush_memdb. destruct (Table.twrite _ _ _ _ _ _ _ _ _) as [file|]; [|discriminate].
    intros E. injection E as <-. unfold tinv, cst_ok. cbn [r_c r_rec c_files c_sess].
    set (t := s_next (c_sess (r_c st))) in *.
    set (fs' := f_set (c_files (r_c st)) (SW.FTable, Z.to_N t) file).
    assert (K : tabs_kept (c_files (r_c st)) fs') by apply tabs_kept_set.
    split; [apply (minv_same st); try reflexivity; exact Hm|]. split.
    - split; [apply nodup_set; exact Hnd|]. unfold sess_ok. cbn [r_c c_files c_sess s_next s_jnum s_levels].
      split; [lia|]. split; [exact Hj|exact (levels_ok_mono _ _ _ K Hlv)].
    - apply rec_ok_add_table; [cbn; lia| |exact (rec_ok_mono _ _ _ K Hr)].
      split; [cbn; exact Hn|]. split; [cbn; lia|]. cbn [SR.at_num]. unfold fs'. rewrite f_lookup_set_same. discriminate.
  Qed.

  Lemma remove_journal_inv st old : tinv st -> tinv (remove_file (SW.FJournal, old) st).
  Proof.
    intros (Hm & (Hnd & Hn & Hj & Hlv) & Hr). unfold remove_file, tinv, cst_ok, sess_ok. cbn [r_c r_rec c_files c_sess].
    assert (K : tabs_kept (c_files (r_c st)) (f_del (c_files (r_c st)) (SW.FJournal, old))) by apply tabs_kept_del_journal.
    split; [apply (minv_same st); try reflexivity; exact Hm|]. split.
    - split; [apply nodup_del; exact Hnd|]. split; [exact Hn|]. split; [exact Hj|exact (levels_ok_mono _ _ _ K Hlv)].
    - exact (rec_ok_mono _ _ _ K Hr).
  Qed.

  Lemma flush_reset_total st1 : tinv st1 ->
    exists st', flush_reset rp kp mp tp tcrc compress snappy fgen blockSize ri c st1 = OOk st' /\ tinv st'.
  Proof.
    intros T1. unfold flush_reset.
    destruct (flush_memdb_total_inv st1 T1) as (st2 & -> & M2 & C2 & R2). cbn [obind].
    destruct (reset_mem_inv kp seek_val mp mpok c st2 M2) as (d0 & -> & _ & M2').
    cbn [of_mres obind]. eexists. split; [reflexivity|]. split; [exact M2'|split; assumption].
  Qed.

  Lemma replay_record_total o j b st : oo_strict_j o = false -> jb_ok b -> tinv st ->
    exists st', rrec o true j (jb_enc b) st = OOk st' /\ tinv st'.
  Proof.
    intros Hns Hb (Hm & Hc & Hr).
    destruct (replay_record_written rp kp kpok seek_val mp mpok tp tcrc compress snappy fgen blockSize ri c cok
                o j b st Hns Hb Hm) as (st1 & E1 & Ec1 & Er1 & Hinv1 & _).
    assert (T1 : tinv st1) by (split; [exact Hinv1|rewrite Ec1, Er1; split; [exact Hc|exact Hr]]).
    destruct (replay_record_flush rp kp mp tp tcrc compress snappy fgen blockSize ri c _ _ _ _ _ E1) as [-> | ->];
      [exists st1; split; [reflexivity|exact T1] | exact (flush_reset_total st1 T1)].
  Qed.

  Lemma replay_recs_total o j bs : oo_strict_j o = false -> Forall jb_ok bs -> forall st, tinv st ->
    exists st', replay_recs rp kp mp tp tcrc compress snappy fgen blockSize ri c o true j (map jb_enc bs) st = OOk st' /\
      tinv st'.
  Proof.
    intros Hns. induction 1 as [|b r Hb Hr IH]; intros st T; cbn [map replay_recs]; [exists st; split; [reflexivity|exact T]|].
    destruct (replay_record_total o j b st Hns Hb T) as (st1 & -> & T1). cbn [obind]. exact (IH st1 T1).
  Qed.

  Lemma rj_pre_total o j ofd st : tinv st ->
    exists st1, rj_pre jcrc jp rp kp mp tp tcrc compress snappy fgen blockSize ri c o j ofd st = OOk st1 /\ tinv st1.
  Proof.
    intros T. unfold rj_pre. destruct ofd as [old|]; [|exists st; split; [reflexivity|exact T]].
    assert (Fa : exists a, (if (0 <? MemDB.mdb_len (r_mdb st))%Z then flushm st else OOk st) = OOk a /\ tinv a).
    { destruct (0 <? MemDB.mdb_len (r_mdb st))%Z; [|exists st; split; [reflexivity|exact T]].
      exact (flush_memdb_total_inv st T). }
    destruct Fa as (a & -> & Ta). cbn [obind].
    destruct (commit_rj_total o j a Ta) as (b & -> & M & C & R). cbn [obind].
    eexists. split; [reflexivity|]. apply remove_journal_inv. split; [exact M|]. split; [exact C|].
    cbn [set_rec r_c r_rec]. apply rec_ok_reset_added. exact R.
  Qed.

  Lemma loop_rw_total o sel : oo_strict_j o = false -> forall ofd st,
    Forall (jfile_ok (oo_jck o) (c_files (r_c st))) sel -> NoDup (olist ofd ++ map jd_num sel) -> tinv st ->
    exists st' ofd', loop_rw o (map jd_num sel) ofd st = OOk (st', ofd') /\ tinv st'.
  Proof.
    intros Hns. induction sel as [|jd sel IH]; intros ofd st Hsel Hnd T.
    - cbn [map rj_loop]. exists st, ofd. split; [reflexivity|exact T].
    - inversion Hsel as [|? ? Hjd Hrest]; subst. destruct Hjd as (Hbs & d & Ed & Hcb).
      destruct (crash_file_records jcrc jp jpok (oo_jck o) _ _ _ Hcb) as (k & Hk & Erecs).
      cbn [map rj_loop]. unfold journal_bytes at 1. rewrite Ed.
      set (pre := match ofd with None => OOk st | Some old => _ end).
      destruct (rj_pre_total o (jd_num jd) ofd st T) as (st1 & Epre & T1).
      destruct (rj_pre_facts jcrc jp rp kp mp tp tcrc compress snappy fgen blockSize ri c _ _ _ _ _ Epre) as (_ & _ & _ & _ & J1).
      change pre with (rj_pre jcrc jp rp kp mp tp tcrc compress snappy fgen blockSize ri c o (jd_num jd) ofd st).
      rewrite Epre. cbn [obind].
      destruct (reset_mem_inv kp seek_val mp mpok c st1 (proj1 T1)) as (d0 & -> & _ & M1').
      cbn [of_mres obind]. rewrite Hns.
      rewrite (replay_outcomes_recs rp kp mp tp tcrc compress snappy fgen blockSize ri c o true (jd_num jd) _
                 (jread_tolerant_clean jcrc jp jpok (oo_jck o) d)).
      rewrite Erecs, firstn_map.
      assert (Hbk : Forall jb_ok (firstn k (jd_bs jd))).
      { apply FileStorageCrashProofs.Forall_firstn'. exact Hbs. }
      assert (T1' : tinv (set_mdb st1 d0)) by (split; [exact M1'|exact (proj2 T1)]).
      destruct (replay_recs_total o (jd_num jd) _ Hns Hbk _ T1') as (st2 & E2 & T2). rewrite E2. cbn [obind].
      destruct (replay_recs_written_rw rp kp kpok seek_val mp mpok tp tcrc compress snappy fgen blockSize ri c cok
                  o (jd_num jd) _ Hns Hbk _ _ (proj1 T1') E2) as (_ & J2 & _ & _).
      unfold set_mdb in J2. cbn [r_c] in J2.
      destruct (jfiles_after_step jcrc jp kp _ _ _ _ _ _ _ Hrest J1 J2 Hnd) as (Hsel2 & Hnd').
      exact (IH _ _ Hsel2 Hnd' T2).
  Qed.

  Lemma remove_all_files rem : forall st, c_sess (r_c (remove_all rem st)) = c_sess (r_c st).
  Proof. induction rem as [|x rem IH]; intros st; cbn [remove_all]; [reflexivity|]. rewrite IH. reflexivity. Qed.

  (* the numbers the manifest leaves fit, the tables it names exist, the storage lists a name once *)
  Definition image_tabs_ok (o : oopts) (img : simage) (mrecs : list (SR.srec * bytes)) (ks : nat) : Prop :=
    NoDup (map fst (si_files img)) /\
    forall k j pj nf q live cps, (ks <= k)%nat ->
      replay_result rp (oo_cmp_name o) (firstn k (map fst mrecs)) = SpecOk j pj nf q live cps ->
      (0 <= j)%Z /\ (0 <= nf)%Z /\ Forall (at_nn (si_files img)) live.

  Lemma sort_levels_in lv live x : (forall l : nat, nth l lv [] = live_at (Z.of_nat l) live) ->
    In x (concat (OpenPathProofs.sort_levels c lv)) -> In x live.
  Proof.
    intros Hlv H. unfold OpenPathProofs.sort_levels in H. apply in_concat in H as (l & Hl & Hx).
    apply in_map_iff in Hl as ([i ts] & <- & Hin). cbn [fst snd] in Hx. apply sort_level_in in Hx.
    apply in_combine_r in Hin. apply (In_nth _ _ []) in Hin as (n & _ & En).
    rewrite Hlv in En. subst ts. unfold live_at in Hx. apply filter_In in Hx. exact (proj1 Hx).
  Qed.

  (* Open, read-write, on a well-formed crash image: it returns a DB *)
  Theorem open_rw_total o hts img m mrecs ks js :
    oo_strict_man o = false -> oo_strict_j o = false -> oo_ro o = false -> oo_err_exist o = false ->
    heights_okl mp hts -> image_ok o img m mrecs ks js -> manifest_ok o mrecs ks -> NoDup (map jd_num js) ->
    image_tabs_ok o img mrecs ks ->
    exists r, openb o hts img = OOk r.
  Proof.
    intros Hsm Hsj Hro Hee Hh Himg Hman Hnd (Hfnd & Htabs).
    destruct (open_recovered jcrc jp jpok rp rpok kp seek_val mp mpok tp tcrc compress snappy fgen blockSize ri c
                o hts img m mrecs ks js Hsm Hee Hh Himg Hman)
      as (k & j & pj & nf & q & live & cps & s & lv & d0 & Hk & Espec & Enf & Ej & Eq & Elv & Hlv & Enew & Hent0 & Hinv0 & Esel & Hsel & ->).
    destruct (Htabs k j pj nf q live cps Hk Espec) as (Hj0 & Hnf0 & Hlive).
    rewrite Hro. unfold open_rw. cbn [c_sess c_files c_meta c_removed c_commits]. rewrite Enew. cbn [of_mres obind].
    rewrite Esel, Eq.
    set (cs1 := match map jd_num (selected j pj js) with [] => _ | _ :: _ => _ end).
    assert (Ecs1 : c_files cs1 = si_files img) by (unfold cs1; destruct (map jd_num (selected j pj js)); reflexivity).
    assert (Hs_ok : sess_ok (si_files img) s).
    { split; [rewrite Enf; exact Hnf0|]. split; [rewrite Ej; exact Hj0|]. rewrite Elv.
      apply Forall_forall. intros x Hx. rewrite Forall_forall in Hlive. apply Hlive. exact (sort_levels_in lv live x Hlv Hx). }
    assert (Hcs1 : cst_ok cs1).
    { unfold cs1. destruct (map jd_num (selected j pj js)); unfold cst_ok; cbn [c_files c_sess]; (split; [exact Hfnd|]); [exact Hs_ok|].
      destruct Hs_ok as (A & B & C). unfold mark_file_num, sess_ok. cbn [s_next s_jnum s_levels]. split; [lia|]. split; assumption. }
    set (st0 := mkRJ cs1 SR.sr_empty q d0 hts []).
    assert (T0 : tinv st0) by (split; [apply Hinv0|split; [exact Hcs1|apply rec_ok_empty]]).
    rewrite <- Ecs1 in Hsel.
    assert (Hnd0 : NoDup (olist None ++ map jd_num (selected j pj js))) by exact (ListLemmas.NoDup_map_filter jd_num _ js Hnd).
    destruct (loop_rw_total o _ Hsj None st0 Hsel Hnd0 T0) as (st1 & ofd & -> & T1). cbn [obind].
    set (fl := match map jd_num (selected j pj js) with [] => OOk st1 | _ :: _ => _ end).
    assert (F2 : exists st2, fl = OOk st2 /\ tinv st2).
    { unfold fl. destruct (map jd_num (selected j pj js)); [exists st1; split; [reflexivity|exact T1]|].
      destruct (0 <? MemDB.mdb_len (r_mdb st1))%Z; [|exists st1; split; [reflexivity|exact T1]].
      exact (flush_memdb_total_inv st1 T1). }
    destruct F2 as (st2 & -> & T2). cbn [obind].
    set (st3 := mkRJ _ _ _ _ _ _).
    assert (T3 : tinv st3).
    { destruct T2 as (M & (Dn & A & B & L) & R). unfold tinv, st3, cst_ok. cbn [r_c r_rec c_files c_sess].
      set (fs' := f_set _ _ _).
      assert (K : tabs_kept (c_files (r_c st2)) fs') by apply tabs_kept_set.
      split; [apply (minv_same st2); try reflexivity; exact M|]. split.
      - split; [apply nodup_set; exact Dn|]. unfold sess_ok. cbn [r_c c_files c_sess s_next s_jnum s_levels].
        split; [lia|]. split; [exact B|exact (levels_ok_mono _ _ _ K L)].
      - exact (rec_ok_mono _ _ _ K R). }
    destruct (commit_rj_total o (Z.to_N (s_next (c_sess (r_c st2)))) st3 T3) as (st4 & -> & T4). cbn [obind].
    set (st5 := match ofd with Some old => remove_file _ st4 | None => st4 end).
    assert (T5 : tinv st5) by (unfold st5; destruct ofd; [apply remove_journal_inv|]; exact T4).
    destruct T5 as (_ & (Dn5 & _ & _ & L5) & _).
    set (jst := {| SW.js_tabs := _; SW.js_manifest := _; SW.js_journal := _; SW.js_frozen := _ |}).
    assert (Hl5 : NoDup (f_list (c_files (r_c st5)))).
    { eapply Permutation_NoDup; [apply f_list_perm|exact Dn5]. }
    pose proof (SweepProofs.jan_count jst _ Hl5) as Hjc.
    unfold SW.janitor.
    replace (Nat.eqb (SW.jan_nt jst (f_list (c_files (r_c st5)))) (length (SW.ndedup (SW.js_tabs jst)))) with true.
    { eexists. reflexivity. }
    symmetry. apply Hjc. intros t Ht. unfold jst in Ht. cbn [SW.js_tabs] in Ht. unfold table_nums in Ht.
    apply in_map_iff in Ht as (x & <- & Hx). rewrite Forall_forall in L5. destruct (L5 x Hx) as (_ & _ & Hf).
    eapply Permutation_in; [apply f_list_perm|]. apply f_lookup_in. exact Hf.
  Qed.
End OpenTotal.

From GL Require Import Store.Crash Store.OpenCrashProofs.

Section OpenTotalRefines.
  Variable jcrc : bytes -> N.
  Variable jp : jparams.
  Hypothesis jpok : jparams_ok jp.
  Variable rp : SR.rparams.
  Hypothesis rpok : rparams_ok rp.
  Variable kp : kparams.
  Hypothesis kpok : kparams_ok kp.
  Hypothesis seek_val : keyTypeSeek kp <= keyTypeVal kp.
  Variable mp : MemDB.mparams.
  Hypothesis mpok : MemDB.mparams_ok mp.
  Variable tp : Table.tparams.
  Variable tcrc : bytes -> N.
  Variable compress : bytes -> bytes.
  Variable snappy : bool.
  Variable fgen : option (bytes * (list (N * list bytes) -> bytes)).
  Variable blockSize ri : N.
  Variable c : comparer.
  Hypothesis cok : comparer_ok c.

  Local Notation openb := (open_bytes jcrc jp rp kp 12 mp tp tcrc compress snappy fgen blockSize ri c).

  (* open_rw_total for the journals the refinement theorems speak of: a frozen one, if any, and the live one *)
  Theorem open_rw_total_pinv o hts img m mrecs ks jfz jl :
    oo_strict_man o = false -> oo_strict_j o = false -> oo_ro o = false -> oo_err_exist o = false ->
    heights_okl mp hts ->
    image_ok jcrc jp rp kp o img m mrecs ks (olist jfz ++ [jl]) -> manifest_ok rp o mrecs ks -> jnums_ok jfz jl ->
    image_tabs_ok rp o img mrecs ks ->
    exists r, openb o hts img = OOk r.
  Proof.
    intros Hsm Hsj Hro Hee Hh Himg Hman Hnum Htabs.
    exact (open_rw_total jcrc jp jpok rp rpok kp kpok seek_val mp mpok tp tcrc compress snappy fgen blockSize ri c cok
             o hts img m mrecs ks _ Hsm Hsj Hro Hee Hh Himg Hman (jnums_nodup kp seek_val jfz jl Hnum) Htabs).
  Qed.

  (* ... and what it returns is what the record-level recover returns: total correctness of the kept batches *)
  Theorem open_rw_refines_recover_total o hts img m mrecs ks jfz jl newb f s :
    oo_strict_man o = false -> oo_strict_j o = false -> oo_ro o = false -> oo_err_exist o = false ->
    heights_okl mp hts ->
    image_ok jcrc jp rp kp o img m mrecs ks (olist jfz ++ [jl]) -> manifest_ok rp o mrecs ks -> no_prev rp mrecs ->
    jnums_ok jfz jl -> order_embedding f -> f 0 = 0 -> pinv s -> denotes rp newb f s mrecs ks jfz jl ->
    image_tabs_ok rp o img mrecs ks ->
    exists r rimg k j nf q live cps d,
      openb o hts img = OOk r /\
      is_image s (image_map f rimg) /\ (ks <= k)%nat /\
      replay_result rp (oo_cmp_name o) (firstn k (map fst mrecs)) = SpecOk j 0%Z nf q live cps /\
      recover_full rimg = (os_seq r, flat_map newb (flat_map SR.sr_adds (firstn k (map fst mrecs))) ++ map pair_batch (os_kept r)) /\
      (forall b, In b (p_acked s) -> In b (recover rimg)) /\
      (forall b, In b (recover rimg) -> In b (p_issued s)) /\
      sorted_b (recover rimg) /\
      bs_mem (os_bs r) = Some d /\ mem_entries mp (Some d) = [] /\ bs_frozen (os_bs r) = None.
  Proof.
    intros Hsm Hsj Hro Hee Hh Himg Hman Hnp Hnum Hf Hf0 Hinv Hden Htabs.
    destruct (open_rw_total_pinv o hts img m mrecs ks jfz jl Hsm Hsj Hro Hee Hh Himg Hman Hnum Htabs) as (r & Eopen).
    destruct (open_rw_refines_recover_partial jcrc jp jpok rp rpok kp kpok seek_val mp mpok tp tcrc compress snappy fgen
                blockSize ri c cok o hts img m mrecs ks jfz jl newb f s r Hsm Hsj Hro Hee Hh Himg Hman Hnp Hnum Hf Hf0 Hinv Hden Eopen)
      as (rimg & k & j & nf & q & live & cps & d & H).
    exists r, rimg, k, j, nf, q, live, cps, d. split; [exact Eopen|exact H].
  Qed.
End OpenTotalRefines.
