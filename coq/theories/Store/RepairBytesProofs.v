(* Store/RepairBytesProofs.v — proofs about Store/RepairBytes.v (leveldb.Recover on bytes).
   - scan_skips_damaged: the scan of recoverTable ("for iter.Next()" on the non-strict table iterator) over a table
     some of whose data blocks cannot be read returns exactly the pairs of the readable blocks, in order (from
     table_iter_skips_unreadable);
   - tseq_above_all: the sequence number recorded for a table is at least that of every good key in it;
   - recover_one_spec: the decision of the inner recoverTable and its bookkeeping (verdict, counters, record, files);
   - rebuilt_table_ok: the table buildTable writes passes the byte-level format check of the read path and holds
     exactly the good pairs in order (from writer_output_ok). *)
From Coq Require Import List NArith ZArith Bool Lia.
From GL Require Import Base.Bytes Base.Order Base.OrderProofs Base.Cursor Codec.IKey Codec.Block Codec.Table Codec.TableCheck
  Codec.TableProofs Codec.TableDamageIterProofs Lsm.Lsm Lsm.ReadPath Lsm.WritePath Lsm.WritePathTable
  Store.OpenPath Store.OpenJournalProofs Store.OpenTotalProofs Store.RepairBytes.
From GL Require Mem.ListLemmas.
Import ListNotations.
Local Open Scope N_scope.

Fixpoint cut {A} (l : list (option A)) : list A :=
  match l with
  | Some x :: r => x :: cut r
  | _ => []
  end.

Section CursorDrain.
  Context {V : Type}.
  Variable c : comparer.
  Variable L : list (bytes * V).

  Definition rest (p : cpos) : list (bytes * V) :=
    match p with CSOI => L | CAt i => skipn (S i) L | CEOI => [] end.
  Definition pos_ok (p : cpos) : Prop := match p with CAt i => (i < length L)%nat | _ => True end.

  Lemma first_cases : (L = [] /\ c_first L = CEOI) \/ (exists x, nth_error L 0 = Some x /\ c_first L = CAt 0).
  Proof. unfold c_first. destruct L as [|x l]; [left; split; reflexivity | right; exists x; split; reflexivity]. Qed.

  Lemma drain_cursor : forall n p, pos_ok p -> (length (rest p) < n)%nat ->
    cut (c_run c L p (repeat OpNext n)) = rest p /\ In None (c_run c L p (repeat OpNext n)).
  Proof.
    induction n as [|n IH]; intros p Hp Hn; [lia|].
    cbn [repeat c_run c_step].
    destruct p as [|i|].
    - cbn [c_next]. destruct first_cases as [[EL Ef]|(x & Ex & Ef)]; rewrite Ef.
      + cbn [c_get cut rest]. split; [symmetry; exact EL | left; reflexivity].
      + cbn [c_get]. rewrite Ex. cbn [cut].
        pose proof (ListLemmas.skipn_nth_error L 0%nat x Ex) as Es. cbn [skipn] in Es.
        assert (Hl : (0 < length L)%nat) by (rewrite Es at 1; cbn; lia).
        destruct (IH (CAt 0%nat)) as [E I].
        * exact Hl.
        * cbn [rest] in *. rewrite Es in Hn at 1. cbn [length] in Hn. cbn [skipn]. lia.
        * split; [rewrite E; cbn [rest]; symmetry; exact Es | right; exact I].
    - cbn [c_next]. cbn [pos_ok] in Hp. cbn [rest] in Hn.
      destruct (Nat.ltb (S i) (length L)) eqn:El.
      + apply Nat.ltb_lt in El.
        destruct (nth_error L (S i)) as [y|] eqn:Ey; [| apply nth_error_None in Ey; lia].
        cbn [c_get]. rewrite Ey. cbn [cut].
        pose proof (ListLemmas.skipn_nth_error L (S i) y Ey) as Es.
        destruct (IH (CAt (S i))) as [E I].
        * exact El.
        * cbn [rest]. rewrite Es in Hn. cbn [length] in Hn. lia.
        * split; [rewrite E; cbn [rest]; symmetry; exact Es | right; exact I].
      + apply Nat.ltb_ge in El. cbn [c_get cut].
        split; [| left; reflexivity].
        symmetry. apply skipn_all2. exact El.
    - cbn [c_next c_get cut rest]. split; [reflexivity | left; reflexivity].
  Qed.

  Lemma drain_cursor_soi n : (length L < n)%nat ->
    cut (c_run c L CSOI (repeat OpNext n)) = L /\ In None (c_run c L CSOI (repeat OpNext n)).
  Proof. intros H. apply (drain_cursor n CSOI I H). Qed.
End CursorDrain.

Section Scan.
  Variable tp : tparams.
  Variable tcrc : bytes -> N.
  Variable decompress : bytes -> option bytes.
  Variable fname : option bytes.
  Variable ufc : bytes -> N -> bytes -> bool.
  Variable verify : bool.
  Variable c : comparer.

  Local Notation ic := (ibc c).

  (* the loop of recoverTable and the observations of the iterator model under repeated Next *)
  Lemma drain_run rd : forall fuel t,
    In None (fst (ti_run ic rd t (repeat OpNext fuel))) ->
    drain c rd fuel t = Some (cut (fst (ti_run ic rd t (repeat OpNext fuel)))).
  Proof.
    induction fuel as [|f IH]; intros t H; [destruct H|].
    cbn [repeat ti_run ti_step drain] in *.
    destruct (ti_next ic rd t) as [ok t'] eqn:En.
    destruct (ti_run ic rd t' (repeat OpNext f)) as [l tf] eqn:Er.
    cbn [fst] in *.
    destruct ok.
    - destruct (ti_get t') as [kv|] eqn:Eg.
      + cbn [cut]. destruct H as [H|H]; [discriminate|].
        specialize (IH t'). rewrite Er in IH. cbn [fst] in IH. rewrite (IH H). reflexivity.
      + reflexivity.
    - reflexivity.
  Qed.

  Theorem scan_skips_damaged rd0 blocks seps hs (bad : nat -> bool) data :
    comparer_ok ic -> table_wf ic rd0 blocks seps hs ->
    let rd := rt_reader tp tcrc decompress fname ufc verify c data in
    tr_index rd = tr_index rd0 ->
    (forall j, (j < length blocks)%nat ->
       tr_fetch rd (nth j hs bh0) = if bad j then Corrupt else tr_fetch rd0 (nth j hs bh0)) ->
    let kept := concat (map (fun j => if bad j then [] else nth j blocks []) (seq 0 (length blocks))) in
    (length kept < scan_fuel data)%nat ->
    scan tp tcrc decompress fname ufc verify c data = Some kept.
  Proof.
    intros Hc wf rd Hidx Hf kept Hfuel.
    destruct (table_iter_skips_unreadable ic rd0 rd blocks seps hs bad Hc wf Hidx Hf) as (t & Et & Hrun).
    unfold scan. fold rd. rewrite Et.
    destruct (drain_cursor_soi ic kept (scan_fuel data) Hfuel) as [E I]. unfold kept in E, I.
    rewrite <- (Hrun (repeat OpNext (scan_fuel data))) in E, I.
    rewrite (drain_run rd _ t I). rewrite E. reflexivity.
  Qed.
End Scan.

(* the running maximum as goleveldb writes it *)
Lemma ltb_max (a b : N) : (if a <? b then b else a) = N.max a b.
Proof. destruct (N.ltb_spec a b); lia. Qed.

Section Seq.
  Variable kp : kparams.

  Lemma tseq_fold_ge : forall (l : list (bytes * bytes)) m0,
    m0 <= fold_left (fun m kv => if m <? key_seq kp (fst kv) then key_seq kp (fst kv) else m) l m0 /\
    forall kv, In kv l -> key_seq kp (fst kv) <= fold_left (fun m kv => if m <? key_seq kp (fst kv) then key_seq kp (fst kv) else m) l m0.
  Proof.
    induction l as [|x l IH]; intros m0; cbn [fold_left].
    - split; [lia | intros kv []].
    - destruct (IH (if m0 <? key_seq kp (fst x) then key_seq kp (fst x) else m0)) as [A B].
      pose proof (ltb_max m0 (key_seq kp (fst x))) as E. split; [lia|]. intros kv [->|H]; [lia | apply B; exact H].
  Qed.

  Theorem tseq_above_all (l : list (bytes * bytes)) kv : In kv l -> key_seq kp (fst kv) <= tseq_of kp l.
  Proof. intros H. apply (proj2 (tseq_fold_ge l 0) kv H). Qed.
End Seq.

Section One.
  Variable rp : SR.rparams.
  Variable kp : kparams.
  Variable tp : tparams.
  Variable tcrc : bytes -> N.
  Variable compress : bytes -> bytes.
  Variable decompress : bytes -> option bytes.
  Variable fname : option bytes.
  Variable ufc : bytes -> N -> bytes -> bool.
  Variable verify : bool.
  Variable wo : wopts.
  Variable c : comparer.

  Local Notation one := (recover_one_bytes rp kp tp tcrc compress decompress fname ufc verify wo c).
  Local Notation file_at st num := (match f_lookup (c_files (rb_c st)) (SW.FTable, num) with Some d => d | None => [] end).

  (* the decision, the counters, the sequence number, and — when rebuilt — the file that replaces the table *)
  Theorem recover_one_spec strict st num all :
    scan tp tcrc decompress fname ufc verify c (file_at st num) = Some all ->
    let data := file_at st num in
    let g := good_of kp all in
    let corrupted := (0 <? N.of_nat (length all) - N.of_nat (length g)) || (0 <? cblocks_of tp tcrc decompress fname ufc verify c data) in
    if (strict && corrupted) || match g with [] => true | _ => false end then
      exists s, one strict st num = OOk (mkRB (rb_c st) (rb_rec st) (rb_maxseq st) (rb_temp st) (rb_stats st ++ [s])) /\
                ts_verdict s = TDropped /\ ts_num s = num
    else if corrupted then
      match table_bytes c kp tp tcrc compress wo g with
      | None => one strict st num = OErr OEFlush
      | Some nd =>
          exists st', one strict st num = OOk st' /\
            f_lookup (c_files (rb_c st')) (SW.FTable, num) = Some nd /\
            f_lookup (c_files (rb_c st')) (SW.FTemp, rb_temp st) = None /\
            rb_temp st' = rb_temp st + 1 /\
            tseq_of kp g <= rb_maxseq st' /\ rb_maxseq st <= rb_maxseq st' /\
            rb_rec st' = SR.add_table rp (rb_rec st)
                           (SR.mkat 0%Z (Z.of_N num) (Z.of_N (lenN nd)) (key_first g) (key_last g)) /\
            exists s, rb_stats st' = rb_stats st ++ [s] /\ ts_verdict s = TRebuilt /\ ts_good s = N.of_nat (length g)
      end
    else
      exists st', one strict st num = OOk st' /\ c_files (rb_c st') = c_files (rb_c st) /\
        tseq_of kp g <= rb_maxseq st' /\ rb_maxseq st <= rb_maxseq st' /\
        rb_rec st' = SR.add_table rp (rb_rec st)
                       (SR.mkat 0%Z (Z.of_N num) (Z.of_N (lenN data)) (key_first g) (key_last g)) /\
        exists s, rb_stats st' = rb_stats st ++ [s] /\ ts_verdict s = TKept /\ ts_good s = N.of_nat (length g).
  Proof.
    intros Hs data g corrupted. unfold recover_one_bytes. cbv zeta. rewrite Hs. fold data. fold g. fold corrupted.
    destruct (strict && corrupted) eqn:Esc; cbn [orb].
    - eexists. split; [reflexivity | split; reflexivity].
    - destruct g as [|kv0 gr] eqn:Eg.
      + eexists. split; [reflexivity | split; reflexivity].
      + assert (Hlast : fst (last (kv0 :: gr) kv0) = key_last (kv0 :: gr)).
        { unfold key_last. destruct gr as [|y gr']; [reflexivity|]. reflexivity. }
        destruct corrupted.
        * destruct (table_bytes c kp tp tcrc compress wo (kv0 :: gr)) as [nd|]; [| reflexivity].
          eexists. split; [reflexivity|]. cbn [rb_c rb_temp rb_maxseq rb_rec rb_stats set_files c_files].
          split; [apply f_lookup_set_same|].
          split.
          { unfold f_set at 1. cbn [f_lookup]. cbn [SW.fd_eqb fst snd].
            assert (E : SW.fd_eqb (SW.FTemp, rb_temp st) (SW.FTable, num) = false) by reflexivity.
            rewrite E.
            (* the temporary file was deleted by the rename and is not re-created *)
            assert (D : forall fs x, f_lookup (f_del fs x) x = None).
            { induction fs as [|[y d] fs IH]; intros x; [reflexivity|]. unfold f_del in *. cbn [filter fst].
              destruct (SW.fd_eqb x y) eqn:Exy; cbn [negb]; [apply IH|]. cbn [f_lookup]. rewrite Exy. apply IH. }
            rewrite f_lookup_del_other by discriminate. apply D. }
          split; [reflexivity|].
          rewrite ltb_max. split; [lia|]. split; [lia|].
          split; [rewrite Hlast; reflexivity|].
          eexists. split; [reflexivity | split; reflexivity].
        * eexists. split; [reflexivity|]. cbn [rb_c rb_temp rb_maxseq rb_rec rb_stats].
          split; [reflexivity|].
          rewrite ltb_max. split; [lia|]. split; [lia|].
          split; [rewrite Hlast; reflexivity|].
          eexists. split; [reflexivity | split; reflexivity].
  Qed.
End One.

Theorem rebuilt_table_ok :
  forall c, comparer_ok c -> forall p, kparams_ok p -> forall tp, tparams_ok tp ->
  forall crc, (forall b, (crc b < 2 ^ 32)%N) ->
  forall compress decompress, (forall x, decompress (compress x) = Some x) -> (forall x, compress x <> []) ->
  forall fname ufc verify o, (1 <= wo_ri o)%N -> forall num all nd,
  let g := good_of p all in
  Cursor.sorted (ibc c) g -> g <> [] -> Forall (fun kv => key_okb p (fst kv) = true) g ->
  table_bytes c p tp crc compress o g = Some nd -> write_sizes_ok c p tp crc compress o g = true ->
  (wo_filter o = None \/
   filter_part c tp crc decompress fname ufc verify (mkTF num (key_first g) (key_last g) nd) = true) ->
  tfile_okb c p tp crc decompress fname ufc verify (wo_ri o) (mkTF num (key_first g) (key_last g) nd) = true /\
  tf_pairs c tp crc decompress fname ufc verify (wo_ri o) (mkTF num (key_first g) (key_last g) nd) = g.
Proof.
  intros c Hc p Hp tp Htp crc Hcrc compress decompress Hcodec Hne fname ufc verify o Hri num all nd g Hs Hn Hk Hb Hsz Hf.
  destruct (writer_output_ok c Hc p Hp tp Htp crc Hcrc compress decompress Hcodec Hne fname ufc verify o Hri num g nd Hs Hn Hk Hb Hsz Hf)
    as (A & B & _).
  split; assumption.
Qed.
