(* Store/LifecycleLocal.v — ONE call on ONE DB record of the lifecycle machine (Store/Lifecycle.v, property C18):
   a call has one of nine effects on its record ([local_step_shape]); only the outcome tables (closed DB,
   read-only DB) go through the API enumeration again. The global lifting is in LifecycleProofs.v. *)
From Coq Require Import List Bool.
From GL Require Import Store.Lifecycle.
Import ListNotations.
Open Scope nat_scope.

Lemma all_api_complete : forall m, In m all_api.
Proof. intros m; destruct m; try destruct empty; try destruct nonnil; repeat (apply in_eq || apply in_cons). Qed.

Lemma is_closed_iff : forall m, is_closed m = true <-> m = Closed.
Proof. intros m; destruct m; cbn; split; congruence. Qed.

Lemma is_closed_false_iff : forall m, is_closed m = false <-> m <> Closed.
Proof. intros m; destruct m; cbn; split; congruence. Qed.

Lemma mlog_apply_mut : forall s m, mlog (apply_mut s m) = mlog s ++ [m].
Proof. intros s m; destruct m; reflexivity. Qed.

Lemma locked_apply_mut : forall s m, locked (apply_mut s m) = locked s.
Proof. intros s m; destruct m; reflexivity. Qed.

Lemma hasdb_apply_mut : forall s m, hasdb (apply_mut s m) = hasdb s.
Proof. intros s m; destruct m; reflexivity. Qed.

Lemma mlog_apply_muts : forall ms s, mlog (apply_muts s ms) = mlog s ++ ms.
Proof.
  unfold apply_muts. induction ms as [|m ms IH]; intros s; cbn [fold_left].
  - now rewrite app_nil_r.
  - rewrite IH, mlog_apply_mut, <- app_assoc. reflexivity.
Qed.

Lemma locked_apply_muts : forall ms s, locked (apply_muts s ms) = locked s.
Proof.
  unfold apply_muts. induction ms as [|m ms IH]; intros s; cbn [fold_left]; [reflexivity|].
  now rewrite IH, locked_apply_mut.
Qed.

Lemma hasdb_apply_muts : forall ms s, hasdb (apply_muts s ms) = hasdb s.
Proof.
  unfold apply_muts. induction ms as [|m ms IH]; intros s; cbn [fold_left]; [reflexivity|].
  now rewrite IH, hasdb_apply_mut.
Qed.

Lemma apply_muts_nil : forall s, apply_muts s [] = s.
Proof. reflexivity. Qed.

Lemma nth_error_upd_same : forall A (l : list A) i x y, nth_error l i = Some y -> nth_error (upd l i x) i = Some x.
Proof. induction l as [|a l IH]; intros [|i] x y H; cbn in *; try discriminate; eauto. Qed.

Lemma nth_error_upd_other : forall A (l : list A) i j x, i <> j -> nth_error (upd l i x) j = nth_error l j.
Proof.
  induction l as [|a l IH]; intros [|i] [|j] x H; cbn; try reflexivity; try congruence.
  apply IH. congruence.
Qed.

Lemma upd_id : forall A (l : list A) i x, nth_error l i = Some x -> upd l i x = l.
Proof. induction l as [|a l IH]; intros [|i] x H; cbn in *; try discriminate; [congruence|]. f_equal; eauto. Qed.

Lemma upd_none : forall A (l : list A) i x, nth_error l i = None -> upd l i x = l.
Proof. induction l as [|a l IH]; intros [|i] x H; cbn in *; try discriminate; try reflexivity. f_equal; eauto. Qed.

Lemma Forall_upd : forall A (P : A -> Prop) l i x, Forall P l -> P x -> Forall P (upd l i x).
Proof.
  induction l as [|a l IH]; intros i x Hl Hx; [destruct i; constructor|].
  inversion Hl; subst. destruct i; cbn; constructor; auto.
Qed.

Lemma Forall_nth_error : forall A (P : A -> Prop) l i x, Forall P l -> nth_error l i = Some x -> P x.
Proof. intros A P l i x Hl H. rewrite Forall_forall in Hl. apply Hl. eapply nth_error_In; eauto. Qed.

Definition all_done (l : list txn) : Prop := Forall (fun t => tdone t = true) l.

Record db_ok (db : dbrec) : Prop := {
  ok_bg  : dmode db = ROpened \/ dmode db = Closed -> dbg db = false;
  ok_txn : dmode db <> RW -> all_done (dtxns db)
}.

Lemma has_open_txn_false : forall db, all_done (dtxns db) -> has_open_txn db = false.
Proof.
  intros db H. unfold has_open_txn. induction H as [|t l Ht _ IH]; cbn; [reflexivity|].
  now rewrite Ht, IH.
Qed.

Lemma has_open_txn_false_inv : forall db, has_open_txn db = false -> all_done (dtxns db).
Proof.
  intros db. unfold has_open_txn, all_done. induction (dtxns db) as [|t l IH]; cbn; intros H; constructor.
  - apply orb_false_iff in H. destruct H as [H _]. now apply negb_false_iff in H.
  - apply IH. apply orb_false_iff in H. tauto.
Qed.

Lemma all_done_close : forall l, all_done (close_txns l).
Proof. induction l; cbn; constructor; auto. Qed.

Lemma all_done_nth : forall l h t, all_done l -> nth_error l h = Some t -> tdone t = true.
Proof. intros l h t H1 H2. exact (Forall_nth_error _ _ _ _ _ H1 H2). Qed.

Ltac inv_res H := injection H as <- <- <-.

(* What one call does to its DB record and which mutations it issues.  Of a read-write DB, and of a call on an
   open transaction, only the mode is recorded: [db_ok] holds of every read-write record and allows an open
   transaction in no other, so the statements about read-only, quiet and closed DBs never meet these two cases. *)
Inductive shape (db : dbrec) (h : nat) : api_call -> dbrec -> list mut -> Prop :=
| sh_close : dmode db <> Closed ->
    shape db h DbClose (mkDb Closed (dseek db) false (dver db) (dsnaps db) (diters db) (close_txns (dtxns db)))
          (close_muts db)
| sh_setro : dmode db = RW -> has_open_txn db = false -> shape db h DbSetReadOnly (set_mode db RSwitched) []
| sh_rw m db' ms : dmode db = RW -> dmode db' = RW -> shape db h m db' ms
| sh_txn m db' ms t : nth_error (dtxns db) h = Some t -> tdone t = false -> dmode db' = dmode db -> shape db h m db' ms
| sh_same m : shape db h m db []
| sh_snaps m l : shape db h m (set_snaps db l) []
| sh_add_iter m i : iver i = dver db -> shape db h m (add_iter db i) []
| sh_iter m i i' : nth_error (diters db) h = Some i -> ik i' = ik i -> iver i' = iver i ->
    (irel i = true -> irel i' = true) -> shape db h m (set_iters db (upd (diters db) h i')) []
| sh_release i : nth_error (diters db) h = Some i ->
    shape db h ItRelease (set_iters db (upd (diters db) h (mkIter (ik i) true (ierr i) false (iver i)))) (release_muts db i).

Local Hint Resolve sh_same sh_snaps sh_add_iter sh_iter sh_release : shape.

Lemma read_sched_mode : forall p db, dmode (read_sched p db) = dmode db.
Proof. intros p db. unfold read_sched. destruct (sched_bg p (dmode db) && dseek db); reflexivity. Qed.

(* only a read-write DB has a compaction goroutine that acts on a read's request *)
Lemma read_sched_idle : forall db, dmode db <> RW -> read_sched true db = db.
Proof. intros db M. unfold read_sched. destruct (dmode db); [congruence|reflexivity..]. Qed.

Lemma read_sched_shape : forall db h m, shape db h m (read_sched true db) [].
Proof.
  intros db h m. destruct (dmode db) eqn:M; [apply sh_rw; [exact M | now rewrite read_sched_mode] |..];
    rewrite read_sched_idle by congruence; apply sh_same.
Qed.
Local Hint Resolve read_sched_shape : shape.

Lemma db_shape : forall db h m db' ms o, recv m = RDb -> db_step true db m = (db', ms, o) -> shape db h m db' ms.
Proof.
  intros db h m db' ms o R H. unfold db_step in H. destruct (dmode db) eqn:M.
  4: destruct m; inv_res H; auto with shape.
  2-3: destruct m; try discriminate R; try destruct empty; inv_res H; auto with shape; apply sh_close; congruence.
  (* read-write: every call but Close and SetReadOnly leaves it so *)
  destruct (has_open_txn db) eqn:T; destruct m; try discriminate R; try destruct empty; cbn in H; inv_res H;
    try (apply sh_rw; [exact M | rewrite ?read_sched_mode; exact M]).
  - apply sh_close. congruence.
  - apply sh_close. congruence.
  - apply sh_setro; assumption.
Qed.

Lemma snap_shape : forall db h r m db' ms o, snap_step true db h r m = (db', ms, o) -> shape db h m db' ms.
Proof.
  intros db h r m db' ms o H. unfold snap_step in H. destruct m; try solve [inv_res H; auto with shape].
  all: destruct r; try destruct (is_closed (dmode db)); inv_res H; auto with shape.
Qed.

Lemma txn_shape : forall db h t m db' ms o,
  nth_error (dtxns db) h = Some t -> txn_step true db h t m = (db', ms, o) -> shape db h m db' ms.
Proof.
  intros db h t m db' ms o E H. unfold txn_step in H. destruct m; try solve [inv_res H; apply sh_same].
  all: try destruct empty; try destruct (is_closed (dmode db)); destruct (tdone t) eqn:D; inv_res H; auto with shape.
  all: apply (sh_txn _ _ _ _ _ t E D); auto using read_sched_mode.
Qed.

Lemma iter_shape : forall db h i m db' ms o,
  nth_error (diters db) h = Some i -> iter_step true db h i m = (db', ms, o) -> shape db h m db' ms.
Proof.
  intros db h i m db' ms o E H. unfold iter_step in H. destruct m; try solve [inv_res H; apply sh_same].
  1-5: destruct (ierr i); [destruct (irel i) eqn:Rl; [|destruct (iter_unsafe db i)]|..]; inv_res H; eauto with shape.
  - destruct (iter_unsafe db i); inv_res H; eauto with shape.
  - destruct (irel i) eqn:Rl; [|destruct (ihasr i && nonnil)]; inv_res H; auto with shape.
    apply (sh_iter _ _ _ i); auto. congruence.
Qed.

Lemma local_step_shape : forall db h m db' ms o, local_step true db h m = (db', ms, o) -> shape db h m db' ms.
Proof.
  intros db h m db' ms o. unfold local_step. destruct (recv m) eqn:R; [apply db_shape; exact R| | |].
  - destruct (nth_error (dsnaps db) h); [apply snap_shape|]. intros H. inv_res H. apply sh_same.
  - destruct (nth_error (dtxns db) h) eqn:E; [apply txn_shape; exact E|]. intros H. inv_res H. apply sh_same.
  - destruct (nth_error (diters db) h) eqn:E; [apply iter_shape; exact E|]. intros H. inv_res H. apply sh_same.
Qed.

(* mode transitions of one call: unchanged, RW -> RSwitched, or open -> Closed *)
Lemma local_step_mode : forall db h m db' ms o,
  local_step true db h m = (db', ms, o) ->
  dmode db' = dmode db \/ (dmode db = RW /\ dmode db' = RSwitched /\ m = DbSetReadOnly) \/
  (dmode db <> Closed /\ dmode db' = Closed /\ m = DbClose).
Proof.
  intros db h m db' ms o H. destruct (local_step_shape _ _ _ _ _ _ H); auto 7. left. congruence.
Qed.

Lemma nth_open_txn : forall db h t, nth_error (dtxns db) h = Some t -> tdone t = false -> all_done (dtxns db) -> False.
Proof. intros db h t H1 H2 H3. rewrite (all_done_nth _ _ _ H3 H1) in H2. discriminate. Qed.

Lemma open_txn_rw : forall db h t, db_ok db -> nth_error (dtxns db) h = Some t -> tdone t = false -> dmode db = RW.
Proof.
  intros db h t [_ Htx] E D. destruct (dmode db); [reflexivity|..]; exfalso;
    apply (nth_open_txn _ _ _ E D); apply Htx; discriminate.
Qed.

Lemma db_ok_rw : forall db, dmode db = RW -> db_ok db.
Proof. intros db M. constructor; rewrite M; [intros [E|E]; discriminate | congruence]. Qed.

Lemma local_step_ok : forall db h m db' ms o,
  db_ok db -> local_step true db h m = (db', ms, o) -> db_ok db'.
Proof.
  intros db h m db' ms o K H.
  destruct (local_step_shape _ _ _ _ _ _ H) as [_|_ T|m db' ms _ M'|m db' ms t E D M'| | | | |].
  (* the last four effects leave mode, background flag and transactions alone *)
  6-9: destruct K; constructor; assumption.
  - constructor; cbn; intros _; [reflexivity | apply all_done_close].
  - constructor; cbn; [intros [E|E]; discriminate | intros _; apply has_open_txn_false_inv, T].
  - apply db_ok_rw, M'.
  - apply db_ok_rw. rewrite M'. exact (open_txn_rw _ _ _ K E D).
  - exact K.
Qed.

Lemma close_muts_idle : forall db, all_done (dtxns db) -> dbg db = false -> close_muts db = [].
Proof.
  intros db Hd B. unfold close_muts. rewrite B.
  induction Hd as [|t l Ht _ IH]; cbn; [reflexivity|]. rewrite Ht. exact IH.
Qed.

(* the reference loop that removes tables exists only in a DB opened read-write and not closed *)
Lemma release_muts_nobg : forall db i, has_bg (dmode db) = false -> release_muts db i = [].
Proof. intros db i B. unfold release_muts. rewrite B. destruct (ik i); reflexivity. Qed.

Lemma local_closed : forall db h m db' ms o,
  db_ok db -> dmode db = Closed -> local_step true db h m = (db', ms, o) ->
  ms = [] /\ o = closed_outcome db h m /\ dmode db' = Closed /\ dbg db' = dbg db /\ dseek db' = dseek db /\
  (recv m = RDb -> m <> DbNewIterator -> db' = db).
Proof.
  intros db h m db' ms o [_ Htx] M H.
  assert (Hd : all_done (dtxns db)) by (apply Htx; congruence).
  unfold local_step in H. unfold closed_outcome. destruct (recv m) eqn:R.
  - unfold db_step in H. rewrite M in H. destruct m; inv_res H; repeat split; auto; congruence.
  - destruct (nth_error (dsnaps db) h) as [r|].
    + unfold snap_step in H. rewrite M in H. destruct m; try discriminate R; destruct r; inv_res H; repeat split; auto; discriminate.
    + inv_res H; repeat split; auto; discriminate.
  - destruct (nth_error (dtxns db) h) as [t|] eqn:E.
    + unfold txn_step in H. rewrite (all_done_nth _ _ _ Hd E), M in H.
      destruct m; try discriminate R; try destruct empty; inv_res H; repeat split; auto; discriminate.
    + inv_res H; repeat split; auto; discriminate.
  - destruct (nth_error (diters db) h) as [i|].
    + unfold iter_step in H. rewrite (release_muts_nobg db i), read_sched_idle in H by (rewrite M; easy).
      destruct m; try discriminate R.
      7: destruct (irel i); [|destruct (ihasr i && nonnil)].
      6: destruct (iter_unsafe db i).
      1-5: destruct (ierr i); [destruct (irel i); [|destruct (iter_unsafe db i)]|..].
      all: inv_res H; repeat split; auto; discriminate.
    + inv_res H; repeat split; auto; discriminate.
Qed.

Lemma local_ro : forall db h m db' ms o,
  db_ok db -> is_ro (dmode db) = true -> local_step true db h m = (db', ms, o) ->
  (recv m = RDb -> takes_write_lock m = true -> db' = db /\ ms = [] /\ o = ErrReadOnly) /\
  (recv m = RDb -> db_read m = true -> ms = [] /\ o = Ok /\ dmode db' = dmode db) /\
  (m = DbClose -> o = Ok /\ dmode db' = Closed) /\
  (ms = [] \/ ((m = DbClose \/ m = ItRelease) /\ dmode db = RSwitched)).
Proof.
  intros db h m db' ms o K M H.
  assert (Db : recv m = RDb -> db_step true db m = (db', ms, o)) by (intros R; unfold local_step in H; now rewrite R in H).
  assert (RO : dmode db = ROpened -> dbg db = false /\ all_done (dtxns db)).
  { intros E. destruct K as [Hbg Htx]. split; [auto|]. apply Htx. congruence. }
  unfold db_step, read_sched in Db. split; [|split; [|split]].
  1-2: intros R W; specialize (Db R); destruct (dmode db) eqn:MD; try discriminate M;
    destruct m; try destruct empty; try discriminate W; inv_res Db; cbn; auto.
  - intros ->. specialize (Db eq_refl). destruct (dmode db); try discriminate M; inv_res Db; auto.
  - destruct (local_step_shape _ _ _ _ _ _ H) as [_| |m db' ms M0 _|m db' ms t E D _| | | | |]; auto.
    + destruct (dmode db); try discriminate M; [left|auto]. destruct RO; auto using close_muts_idle.
    + rewrite M0 in M. discriminate.
    + rewrite (open_txn_rw _ _ _ K E D) in M. discriminate.
    + destruct (dmode db) eqn:MD; try discriminate M; [left|auto]. apply release_muts_nobg. now rewrite MD.
Qed.

(* the iterator pins the current version (or none): releasing it removes no file *)
Definition pins_current (v : nat) (i : iter) : bool :=
  match ik i with
  | IEmpty => true
  | IReal _ => irel i || Nat.eqb (iver i) v
  end.

(* closed, opened read-only, or switched to read-only with the background work drained (the repaired code: the
   compaction goroutines start nothing once the DB is read-only, whatever the seek-compaction option) *)
Definition quietb (db : dbrec) : bool :=
  match dmode db with
  | Closed | ROpened => true
  | RSwitched => negb (dbg db) && forallb (pins_current (dver db)) (diters db)
  | RW => false
  end.

Lemma forallb_upd : forall A (p : A -> bool) l i x, forallb p l = true -> p x = true -> forallb p (upd l i x) = true.
Proof.
  induction l as [|a l IH]; intros [|i] x H Hx; cbn in *; auto;
    apply andb_true_iff in H; destruct H as [H1 H2]; apply andb_true_iff; split; auto.
Qed.

Lemma forallb_snoc : forall A (p : A -> bool) l x, forallb p l = true -> p x = true -> forallb p (l ++ [x]) = true.
Proof. intros. rewrite forallb_app. cbn. now rewrite H, H0. Qed.

Lemma forallb_nth : forall A (p : A -> bool) l i x, forallb p l = true -> nth_error l i = Some x -> p x = true.
Proof. intros A p l i x H E. rewrite forallb_forall in H. apply H. eapply nth_error_In; eauto. Qed.

Lemma pins_no_release : forall v i o, pins_current v i = true -> ik i = IReal o ->
  negb (irel i) && negb (Nat.eqb (iver i) v) = true -> False.
Proof.
  intros v i o P K H. unfold pins_current in P. rewrite K in P.
  apply andb_true_iff in H. destruct H as [H1 H2]. apply negb_true_iff in H1. apply negb_true_iff in H2.
  rewrite H1, H2 in P. discriminate.
Qed.

Lemma pins_own : forall v i, iver i = v -> pins_current v i = true.
Proof.
  intros v i E. unfold pins_current. destruct (ik i); [|reflexivity].
  rewrite E, PeanoNat.Nat.eqb_refl. apply orb_true_r.
Qed.

Lemma pins_keep : forall v i i', ik i' = ik i -> iver i' = iver i -> (irel i = true -> irel i' = true) ->
  pins_current v i = true -> pins_current v i' = true.
Proof.
  intros v i i' K V R. unfold pins_current. rewrite K, V. destruct (ik i); [|reflexivity].
  destruct (irel i); [rewrite R; reflexivity|]. cbn. intros ->. apply orb_true_r.
Qed.

Lemma quiet_not_rw : forall db, quietb db = true -> dmode db = RW -> False.
Proof. intros db Q M. unfold quietb in Q. rewrite M in Q. discriminate. Qed.

(* the iterator list of a quiet DB may change as long as the iterators keep pinning the current version *)
Lemma quietb_set_iters : forall db l, quietb db = true ->
  (forallb (pins_current (dver db)) (diters db) = true -> forallb (pins_current (dver db)) l = true) ->
  quietb (set_iters db l) = true.
Proof.
  intros db l. unfold quietb. cbn. destruct (dmode db); auto.
  intros Q F. apply andb_true_iff in Q. destruct Q as [B P]. rewrite B. apply F, P.
Qed.

Lemma quiet_release : forall db h i, quietb db = true -> nth_error (diters db) h = Some i -> release_muts db i = [].
Proof.
  intros db h i Q E. unfold quietb in Q. destruct (dmode db) eqn:M; try discriminate Q;
    [apply release_muts_nobg; now rewrite M | | apply release_muts_nobg; now rewrite M].
  apply andb_true_iff in Q. destruct Q as [_ P]. pose proof (forallb_nth _ _ _ _ _ P E) as Pi.
  unfold release_muts. rewrite M. destruct (ik i) eqn:K; [|reflexivity]. cbn [has_bg andb].
  destruct (negb (irel i) && negb (Nat.eqb (iver i) (dver db))) eqn:N; [|reflexivity].
  destruct (pins_no_release _ _ _ Pi K N).
Qed.

Lemma local_quiet : forall db h m db' ms o,
  db_ok db -> quietb db = true -> local_step true db h m = (db', ms, o) -> ms = [] /\ quietb db' = true.
Proof.
  intros db h m db' ms o K Q H.
  destruct (local_step_shape _ _ _ _ _ _ H) as [_|M _|m db' ms M _|m db' ms t E D _| | | |m i i' E Ki Vi Ri|i E].
  - split; [|reflexivity]. destruct K as [Hbg Htx]. unfold quietb in Q.
    destruct (dmode db) eqn:M; try discriminate Q; apply close_muts_idle; try (apply Htx; discriminate); auto.
    apply andb_true_iff in Q. destruct Q as [B _]. now apply negb_true_iff in B.
  - destruct (quiet_not_rw _ Q M).
  - destruct (quiet_not_rw _ Q M).
  - destruct (quiet_not_rw _ Q (open_txn_rw _ _ _ K E D)).
  - auto.
  - auto.
  - split; [reflexivity|]. apply quietb_set_iters; [exact Q|]. intros P. apply forallb_snoc; [exact P|]. now apply pins_own.
  - split; [reflexivity|]. apply quietb_set_iters; [exact Q|]. intros P. apply forallb_upd; [exact P|].
    exact (pins_keep _ _ _ Ki Vi Ri (forallb_nth _ _ _ _ _ P E)).
  - split; [exact (quiet_release _ _ _ Q E)|]. apply quietb_set_iters; [exact Q|]. intros P.
    apply forallb_upd; [exact P|]. apply (pins_keep _ i); auto. exact (forallb_nth _ _ _ _ _ P E).
Qed.

Lemma drain_quiet : forall db, db_ok db -> quietb db = true -> drain_db db = (db, []).
Proof.
  intros db [Hbg _] Q. unfold drain_db, quietb in *.
  destruct (dmode db) eqn:MD; try discriminate Q.
  - rewrite Hbg; auto.
  - apply andb_true_iff in Q. destruct Q as [Q2 _].
    apply negb_true_iff in Q2. now rewrite Q2.
  - rewrite Hbg; auto.
Qed.

Lemma local_snap_released : forall db h m,
  nth_error (dsnaps db) h = Some true -> m = SnGet \/ m = SnHas \/ m = SnNewIterator ->
  exists db', local_step true db h m = (db', [], ErrSnapshotReleased) /\ dmode db' = dmode db /\ dsnaps db' = dsnaps db.
Proof.
  intros db h m H [->|[->| ->]]; unfold local_step; cbn; rewrite H; cbn; eexists; split; try reflexivity; auto.
Qed.

Lemma local_iter_released : forall db h i m,
  nth_error (diters db) h = Some i -> irel i = true -> ierr i = Ok -> it_move m = true ->
  local_step true db h m =
    (set_iters db (upd (diters db) h (mkIter (ik i) true ErrIterReleased (ihasr i) (iver i))), [], ErrIterReleased).
Proof.
  intros db h i m H R E M. destruct m; try discriminate M; unfold local_step; cbn; rewrite H; cbn;
    unfold iter_step; rewrite E, R; reflexivity.
Qed.

Lemma local_iter_sticky : forall db h i m,
  nth_error (diters db) h = Some i -> ierr i <> Ok ->
  it_move m = true \/ m = ItValid \/ m = ItError \/ m = ItKey \/ m = ItValue ->
  local_step true db h m = (db, [], ierr i).
Proof.
  intros db h i m H E M.
  destruct M as [M|[->|[->|[->| ->]]]]; try (unfold local_step; cbn; rewrite H; reflexivity).
  destruct m; try discriminate M; unfold local_step; cbn; rewrite H; cbn; unfold iter_step;
    destruct (ierr i); try reflexivity; contradiction.
Qed.

Lemma local_iter_setreleaser_released : forall db h i b,
  nth_error (diters db) h = Some i -> irel i = true -> local_step true db h (ItSetReleaser b) = (db, [], Panics).
Proof. intros db h i b H R. unfold local_step; cbn; rewrite H; cbn. unfold iter_step. now rewrite R. Qed.

Lemma local_txn_done : forall db h t m,
  nth_error (dtxns db) h = Some t -> tdone t = true -> recv m = RTxn ->
  exists db', local_step true db h m = (db', [],
    match m with
    | TrWrite true | TrDiscard => Ok
    | TrCommit => if is_closed (dmode db) then ErrClosed else ErrTransactionDone
    | _ => ErrTransactionDone
    end) /\ dmode db' = dmode db /\ dtxns db' = dtxns db /\ (m <> TrNewIterator -> db' = db).
Proof.
  intros db h t m H D R.
  destruct m; try destruct empty; try discriminate R; unfold local_step; cbn; rewrite H; cbn;
    unfold txn_step; rewrite ?D; try destruct (is_closed (dmode db));
    eexists; split; try reflexivity; cbn; repeat split; auto; congruence.
Qed.

