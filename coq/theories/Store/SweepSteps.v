(* Store/SweepSteps.v — the steps of a running DB that go through session.commit or a sequence of Remove calls keep
   the invariant Inv of Store/SweepInv.v: a job's commit (step_commit), Transaction.discard (step_discard), Close
   (step_close). *)
From Coq Require Import NArith List Bool.
From GL Require Import Store.Sweep Store.SweepProofs Store.SweepInv Store.SweepCommit.
Import ListNotations.
Open Scope N_scope.

Local Arguments tset : simpl never.

Lemma set_fdone_true_Inv : forall s, Inv s ->
  (forall v, In v (views s) -> v_jnum v = journal s) -> sjnum s = journal s -> Inv (set_fdone true s).
Proof. intros s H Hv Hs. constructor; cbn; try apply H. intros _. split; auto. Qed.

Lemma step_commit : forall s k rot o rmok s', Inv s -> step s (OCommit k rot o rmok) = Some s' -> Inv s'.
Proof.
  intros s k rot o rmok s' H. cbn.
  destruct (opened s); cbn; [|discriminate].
  destruct (j_on (getjob k s)) eqn:Eon; cbn; [|discriminate].
  destruct (cur_of k s) eqn:Ecur; [discriminate|]. cbn.
  destruct (match k with KTxn => _ | _ => true end); [|discriminate].
  set (jn := match k with KFlush => Some (journal s) | _ => None end).
  assert (Hjn : jn = None \/ jn = Some (journal s)) by (destruct k; cbn; auto).
  destruct (commit_Inv (Some k) (j_del (getjob k s)) jn rot o rmok s H Hjn) as (H1&Hok&Hfail).
  destruct (commit (Some k) (j_del (getjob k s)) jn rot o rmok s) as [s1 ok]. cbn [fst snd] in *.
  destruct ok; intros E; inversion E; subst; clear E; auto.
  destruct (Hok eq_refl) as (Pa&Pb&Pc&Pd&Pe&Pf&Pg&Ph&Pi&Pj).
  assert (Hnc : forall t, tget (tb s1) t <> Some (CCur k)).
  { intros t Hc. apply Pa in Hc; try discriminate. revert Hc. apply cur_of_None; auto. apply (i_k s H). }
  assert (H2 : Inv (match k with KFlush => set_fdone true s1 | _ => s1 end)).
  { destruct k; auto. destruct (Pc (journal s) eq_refl) as [V S].
    apply set_fdone_true_Inv; auto; rewrite Pe; auto. }
  assert (Etb : tb (match k with KFlush => set_fdone true s1 | _ => s1 end) = tb s1) by (destruct k; reflexivity).
  apply setjob_Inv; auto; cbn.
  - intros _ t. rewrite Etb. split; [apply (Pb k eq_refl) | apply Hnc].
  - intros _ v t _ _. rewrite Etb. apply (Pb k eq_refl).
Qed.

Lemma del_func_fields : forall t ok s,
  views (del_func t ok s) = views s /\ mfailed (del_func t ok s) = mfailed s /\ held (del_func t ok s) = held s /\
  pins (del_func t ok s) = pins s /\ (forall k, getjob k (del_func t ok s) = getjob k s) /\
  tb (del_func t ok s) = tdel (tb s) t.
Proof.
  intros. unfold del_func, reuse_num.
  destruct (do_rm_form (FTable, t) ok RFailed (set_tb (tdel (tb s) t) s)) as (fl & r & -> & _).
  destruct (reuse _); [destruct (_ =? _)|]; cbn; repeat split; auto; intros k; destruct k; reflexivity.
Qed.

Lemma tops_remove_fields : forall t ok s,
  views (tops_remove t ok s) = views s /\ mfailed (tops_remove t ok s) = mfailed s /\
  held (tops_remove t ok s) = held s /\ pins (tops_remove t ok s) = pins s /\
  (forall k, getjob k (tops_remove t ok s) = getjob k s) /\
  (forall u, u <> t -> tget (tb (tops_remove t ok s)) u = tget (tb s) u) /\
  (tget (tb (tops_remove t ok s)) t = Some CPend \/ tget (tb (tops_remove t ok s)) t = None).
Proof.
  intros. unfold tops_remove. destruct (nmem (pins s) t).
  - split; [|split; [|split; [|split; [|split; [|split]]]]]; auto.
    + cbn. intros u Hu. rewrite tget_tset. destruct (N.eqb_spec t u); congruence.
    + cbn. left. rewrite tget_tset, N.eqb_refl. reflexivity.
  - destruct (del_func_fields t ok s) as (E1&E2&E3&E4&E5&E6). rewrite E1, E2, E3, E4, E6.
    split; [|split; [|split; [|split; [|split; [|split]]]]]; auto.
    + intros u Hu. apply tget_tdel_neq. congruence.
    + right. apply tget_tdel_eq.
Qed.

Lemma tops_remove_all_Inv : forall ts bad s, Inv s -> NoDup ts ->
  (forall t, In t ts -> tget (tb s) t = Some (COut KTxn)) ->
  (mfailed s = false \/ j_cfail (jt s) = false) ->
  Inv (tops_remove_all ts bad s) /\
  (forall u c, tget (tb (tops_remove_all ts bad s)) u = Some c -> c <> CPend -> tget (tb s) u = Some c /\ ~ In u ts).
Proof.
  induction ts as [|t ts IH]; intros bad s H Hnd Hts Hcond; cbn.
  - split; auto.
  - inversion Hnd as [|x l Hnotin Hnd']; subst.
    assert (Ec : tget (tb s) t = Some (COut KTxn)) by (apply Hts; left; auto).
    assert (Hv : forall v, In v (views s) -> ~ In t (v_tabs v)).
    { destruct Hcond as [Em|Ecf].
      - destruct (i_v2 s H Em) as [v0 [Ev0 Hiff]]. intros v Hv Ht. rewrite Ev0 in Hv. destruct Hv as [ <- |[]].
        apply Hiff in Ht. congruence.
      - apply (not_viewed s t (COut KTxn)); auto; try discriminate. intros k E. inversion E; subst. auto. }
    assert (H1 : Inv (tops_remove t (negb (fmem bad (FTable, t))) s)).
    { apply (tops_remove_Inv s t (COut KTxn)); auto; try discriminate.
      apply (not_held s t (COut KTxn)); auto; discriminate. }
    destruct (tops_remove_fields t (negb (fmem bad (FTable, t))) s) as (E1&E2&E3&E4&E5&E6&E7).
    set (s1 := tops_remove t (negb (fmem bad (FTable, t))) s) in *.
    assert (Hts1 : forall u, In u ts -> tget (tb s1) u = Some (COut KTxn)).
    { intros u Hu. rewrite E6; [apply Hts; right; auto|]. intro; subst; contradiction. }
    assert (Hcond1 : mfailed s1 = false \/ j_cfail (jt s1) = false).
    { rewrite E2. specialize (E5 KTxn). cbn in E5. rewrite E5. auto. }
    destruct (IH bad s1 H1 Hnd' Hts1 Hcond1) as [I1 I2]. split; auto.
    intros u c Hc Hnp. destruct (I2 u c Hc Hnp) as [Hc1 Hnin].
    destruct (N.eqb_spec u t) as [->|Hne].
    + destruct E7 as [E7|E7]; rewrite E7 in Hc1; inversion Hc1; subst; congruence.
    + rewrite E6 in Hc1 by auto. split; auto. intros [ <- |Hin]; auto.
Qed.

Lemma step_discard : forall s o rmok bad s', Inv s -> step s (ODiscard o rmok bad) = Some s' -> Inv s'.
Proof.
  intros s o rmok bad s' H. cbn.
  destruct (opened s); cbn; [|discriminate].
  destruct (j_on (jt s)) eqn:Eon; cbn; [|discriminate].
  destruct (cur_of KTxn s) eqn:Ecur; [discriminate|].
  pose proof (i_k s H) as HK.
  assert (Hcur : forall t, tget (tb s) t <> Some (CCur KTxn)) by (intros t; apply cur_of_None; auto).
  assert (Hstage : forall s1 keep,
            (s1, keep) = (if j_cfail (jt s) && mfailed s
                          then let '(s', ok) := commit None [] None false o rmok s in (s', negb ok)
                          else (s, false)) ->
            Inv s1 /\ (forall t c, tget (tb s1) t = Some c -> c <> CTab -> c <> CObs -> tget (tb s) t = Some c) /\
            (keep = false -> mfailed s1 = false \/ j_cfail (jt s1) = false)).
  { intros s1 keep E. destruct (j_cfail (jt s) && mfailed s) eqn:Eg.
    - destruct (commit_Inv None [] None false o rmok s H (or_introl eq_refl)) as (H1&Hok&Hfail).
      destruct (commit None [] None false o rmok s) as [sc ok]. cbn [fst snd] in *. inversion E; subst.
      split; auto. destruct ok.
      + destruct (Hok eq_refl) as (Pa&Pb&Pc&Pd&Pe&Pf&Pg&Ph&Pi&Pj). split; auto.
      + destruct (Hfail eq_refl) as (Q1&_). rewrite Q1. split; auto. discriminate.
    - inversion E; subst. split; auto. split; auto. intros _.
      apply andb_false_iff in Eg. destruct Eg; auto. }
  destruct (if j_cfail (jt s) && mfailed s
            then let '(s', ok) := commit None [] None false o rmok s in (s', negb ok)
            else (s, false)) as [s1 keep] eqn:Est.
  destruct (Hstage s1 keep eq_refl) as (H1&Hcls&Hcond).
  pose proof (i_k s1 H1) as HK1.
  assert (Hcur1 : forall t, tget (tb s1) t <> Some (CCur KTxn)).
  { intros t Hc. apply Hcls in Hc; try discriminate. apply (Hcur t); auto. }
  destruct keep; intros E; inversion E; subst; clear E.
  - change (set_jt job_off (orphan (keys_with (is_out KTxn) (tb s1)) RKept s1))
      with (setjob KTxn job_off (orphan (keys_with (is_out KTxn) (tb s1)) RKept s1)).
    apply setjob_Inv.
    + apply orphan_Inv; auto. intros t Ht. apply outs_In in Ht; auto. rewrite Ht. split; discriminate.
    + intros _ t. rewrite orphan_tget. destruct (nmem (keys_with (is_out KTxn) (tb s1)) t) eqn:En; [split; discriminate|].
      split; auto. intro Hc. apply outs_In in Hc; auto. apply nmem_In in Hc. congruence.
    + intros _ v t _ _. rewrite orphan_tget. destruct (nmem (keys_with (is_out KTxn) (tb s1)) t) eqn:En; [discriminate|].
      intro Hc. apply outs_In in Hc; auto. apply nmem_In in Hc. congruence.
  - destruct (tops_remove_all_Inv (keys_with (is_out KTxn) (tb s1)) bad s1 H1 (keys_with_NoDup _ _ HK1)) as [I1 I2]; auto.
    { intros t Ht. apply outs_In; auto. }
    change (set_jt job_off (tops_remove_all (keys_with (is_out KTxn) (tb s1)) bad s1))
      with (setjob KTxn job_off (tops_remove_all (keys_with (is_out KTxn) (tb s1)) bad s1)).
    apply setjob_Inv; auto.
    + intros _ t. split.
      * intro Hc. destruct (I2 t _ Hc ltac:(discriminate)) as [Hc1 Hn]. apply Hn. apply outs_In; auto.
      * intro Hc. destruct (I2 t _ Hc ltac:(discriminate)) as [Hc1 Hn]. apply (Hcur1 t); auto.
    + intros _ v t _ _ Hc. destruct (I2 t _ Hc ltac:(discriminate)) as [Hc1 Hn]. apply Hn. apply outs_In; auto.
Qed.

Lemma step_close : forall s s', Inv s -> step s OClose = Some s' -> InvC s'.
Proof.
  intros s s' H. cbn. destruct (opened s && all_off s && _ && _); [|discriminate].
  intros E; inversion E; subst. constructor; cbn.
  - apply (i_fl s H).
  - intros v Hv. apply (i_v7 s H v Hv).
  - apply (i_t s H).
  - reflexivity.
Qed.
