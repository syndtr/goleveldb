(* Store/OpenJournalProofs.v — the journal half of Open (Store/OpenPath.v replay_outcomes / rj_loop_ro) against the
   record-level recovery of Store/Crash.v (replay_journal) and against the memdb theory of C14 / C01.

   A journal file that holds the batches bs is the journal framing of their records (Codec/Batch.v group_record of
   the merged group, first sequence number in the header).  What the tolerant reader yields on a crash image of it
   is a prefix of those records (Store/CrashBytesProofs.v).  Replaying written records:
     - decodeBatchToMem rejects a record whose first sequence number is below the running one with the buffer
       untouched, and otherwise is putMem of the group (C01_replay_equals_live);
     - the buffer's invariant is kept and its entries grow by exactly the stamped records of the accepted batches
       (C01's putmem_group_history);
     - the running number and the accepted batches are those of Store/Crash.v replay_journal. *)
From Coq Require Import List NArith ZArith Bool Lia.
From GL Require Import Base.Bytes Base.Order Codec.IKey Codec.Journal Codec.JournalSpec Codec.JournalReaderProofs
  Codec.Batch Codec.BatchProofs Codec.BatchGroupProofs Lsm.Lsm Lsm.History Lsm.HistoryProofs Lsm.ReadPath
  Lsm.ReadPathMem Lsm.BatchWriteProofs Store.Crash Store.OpenPath.
From GL Require Mem.MemDB Mem.MemOps Mem.MemInv Store.SweepProofs.
Import ListNotations.
Open Scope N_scope.

Definition clean_outcome (o : outcome) : Prop :=
  match o with Rec _ | Skipped | Dropped _ _ => True | _ => False end.

Lemma assemble_tolerant_clean p st evs : Forall clean_outcome (assemble p false st evs).
Proof.
  revert st. induction evs as [|ev evs IH]; intros st.
  - destruct st; cbn; repeat constructor.
  - destruct ev as [c|r n]; cbn [assemble].
    + destruct st.
      * destruct (is_start_type p (c_type c)); [destruct (is_last_type p (c_type c))|];
          try (constructor; [exact I|]); apply IH.
      * destruct (is_last_type p (c_type c)); try (constructor; [exact I|]); apply IH.
    + constructor; [exact I|]. destruct st; try (constructor; [exact I|]); apply IH.
Qed.

Lemma jread_tolerant_clean crc p (pok : jparams_ok p) ck b : Forall clean_outcome (jread crc p false ck b).
Proof.
  unfold jread, outs. rewrite (reader_factor crc p pok).
  pose proof (assemble_tolerant_clean p AIdle (stream_events crc p ck b)) as H.
  induction H as [|o l Ho Hl IH]; cbn [filter]; [constructor|].
  destruct (negb (is_drop o)); [constructor; assumption|assumption].
Qed.

Section OpenJournal.
  Variable rp : SR.rparams.
  Variable kp : kparams.
  Hypothesis kpok : kparams_ok kp.
  Hypothesis seek_val : keyTypeSeek kp <= keyTypeVal kp.
  Variable mp : MemDB.mparams.
  Hypothesis mpok : MemDB.mparams_ok mp.
  Variable tp : Table.tparams.
  Variable tcrc : bytes -> N.
  Variable compress : bytes -> bytes.
  Variable snappy : bool.
  Variable fgen : option (bytes * (list (N * list bytes) -> bytes)).
  Variable blockSize ri : N.
  Variable c : comparer.
  Hypothesis cok : comparer_ok c.

  Local Notation bhl := 12.
  Local Notation rrec := (replay_record rp kp bhl mp tp tcrc compress snappy fgen blockSize ri c).
  Local Notation routs := (replay_outcomes rp kp bhl mp tp tcrc compress snappy fgen blockSize ri c).

  (* first sequence number and the merged group's batches, each the list of its records *)
  Definition jbatch : Type := (N * list (list brec))%type.
  Definition jb_recs (b : jbatch) : list brec := concat (snd b).
  Definition jb_n (b : jbatch) : N := N.of_nat (length (jb_recs b)).
  Definition jb_enc (b : jbatch) : bytes := group_record (group_of kp (snd b)) (fst b).
  Definition jb_abs (b : jbatch) : Crash.batch := {| b_seq := fst b; b_n := jb_n b |}.
  (* what a batch leaves in the buffer *)
  Definition jb_entries (b : jbatch) : list entry := stamp (fst b - 1) (map (norm_rec kp) (jb_recs b)).

  Definition jb_ok (b : jbatch) : Prop :=
    Forall (rec_wf kp) (jb_recs b) /\ 1 <= fst b /\ fst b + jb_n b <= keyMaxSeq kp /\
    jb_n b < 2 ^ 32 /\ lenN (enc_recs kp (jb_recs b)) < 2 ^ 59.

  (* replay_journal of Store/Crash.v, keeping the batches themselves *)
  Fixpoint accepted (bs : list jbatch) (cur : N) : list jbatch * N :=
    match bs with
    | [] => ([], cur)
    | b :: r => if fst b <? cur then accepted r cur
                else let (a, e) := accepted r (fst b + jb_n b) in (b :: a, e)
    end.

  Lemma accepted_replay bs : forall cur acc,
    replay_journal (map jb_abs bs) cur acc = (snd (accepted bs cur), acc ++ map jb_abs (fst (accepted bs cur))).
  Proof.
    induction bs as [|b r IH]; intros cur acc; cbn [map replay_journal accepted].
    - cbn. now rewrite app_nil_r.
    - cbn [jb_abs b_seq b_n]. destruct (fst b <? cur); [apply IH|].
      rewrite IH. destruct (accepted r (fst b + jb_n b)) as [a e]. cbn [fst snd map].
      now rewrite <- app_assoc.
  Qed.

  (* on clean outcomes, replay_outcomes is replay_record folded over their records *)
  Fixpoint replay_recs (o : oopts) (flush : bool) (j : N) (recs : list bytes) (st : rj) : ores rj :=
    match recs with
    | [] => OOk st
    | b :: r => obind (rrec o flush j b st) (replay_recs o flush j r)
    end.

  Lemma replay_outcomes_recs o flush j l : Forall clean_outcome l -> forall st,
    routs o flush j l st = replay_recs o flush j (recs_of l) st.
  Proof.
    induction 1 as [|x l Hx Hl IH]; intros st; [reflexivity|].
    destruct x; try contradiction; cbn [replay_outcomes recs_of flat_map app replay_recs].
    - destruct (rrec o flush j b st); cbn [obind]; [apply IH|reflexivity].
    - apply IH.
    - apply IH.
  Qed.

  Definition mem_inv (st : rj) : Prop :=
    mem_ok c kp mp (r_mdb st) /\ heights_okl mp (r_hts st) /\
    (forall x, In x (mem_entries mp (Some (r_mdb st))) -> e_seq x < r_seq st).

  Lemma max_seq_64 : keyMaxSeq kp + 1 < 2 ^ 64.
  Proof.
    destruct kpok as (_ & _ & _ & _ & Hm & _). rewrite Hm.
    change (2 ^ 56) with 72057594037927936. change (2 ^ 64) with 18446744073709551616. lia.
  Qed.

  Lemma replay_record_written o j b st :
    oo_strict_j o = false -> jb_ok b -> mem_inv st ->
    exists st', rrec o false j (jb_enc b) st = OOk st' /\ r_c st' = r_c st /\ r_rec st' = r_rec st /\ mem_inv st' /\
      if fst b <? r_seq st
      then r_seq st' = r_seq st /\ r_mdb st' = r_mdb st /\ r_hts st' = r_hts st /\ r_kept st' = r_kept st
      else r_seq st' = fst b + jb_n b /\ r_kept st' = r_kept st ++ [(fst b, jb_n b)] /\
           (forall x, In x (mem_entries mp (Some (r_mdb st'))) <->
                      In x (mem_entries mp (Some (r_mdb st))) \/ In x (jb_entries b)).
  Proof.
    intros Hns (Hw & H1 & Hs & Hn & Hl) (Hm & Hh & Hf).
    pose proof max_seq_64 as M64.
    assert (Hok : Forall (rec_ok kp) (jb_recs b)) by (eapply Forall_impl; [|exact Hw]; apply (rec_wf_ok kp kpok seek_val)).
    assert (Hs64 : fst b < 2 ^ 64) by (unfold jb_n in *; lia).
    unfold replay_record, jb_enc.
    rewrite (replay_equals_live kp kpok bhl eq_refl (ibc c) mp (snd b) (fst b) (r_seq st) (r_mdb st) (r_hts st) Hok Hs64 Hn Hl ltac:(unfold jb_n, jb_recs in *; lia)).
    destruct (fst b <? r_seq st) eqn:Elt.
    - rewrite Hns. destruct st as [cs rec sq d hts kept]. cbn [r_c r_rec r_seq r_mdb r_hts r_kept] in *.
      eexists. split; [reflexivity|]. cbn [r_c r_rec r_seq r_mdb r_hts r_kept].
      split; [reflexivity|]. split; [reflexivity|]. split; [exact (conj Hm (conj Hh Hf))|].
      repeat split; reflexivity.
    - apply N.ltb_ge in Elt.
      assert (Hl' : lenN (enc_recs kp (jb_recs b)) < 2 ^ 63).
      { change (2 ^ 59) with 576460752303423488 in Hl. change (2 ^ 63) with 9223372036854775808. lia. }
      assert (Hf' : forall x, In x (mem_entries mp (Some (r_mdb st))) -> e_seq x <= fst b - 1).
      { intros x Hx. specialize (Hf x Hx). lia. }
      destruct (putmem_group_history c cok kp kpok seek_val mp mpok (r_mdb st) (snd b) (fst b - 1) (r_hts st) Hm Hf' Hw ltac:(unfold jb_n, jb_recs in *; lia) Hh Hl')
        as (d' & hs' & E & Hm' & Hh' & Hin).
      replace (fst b - 1 + 1) with (fst b) in E by lia. rewrite E.
      cbn [andb]. eexists. split; [reflexivity|]. cbn [r_c r_rec r_seq r_mdb r_hts r_kept].
      assert (Eu : u64 (fst b + N.of_nat (length (concat (snd b)))) = fst b + jb_n b).
      { apply u64_small. unfold jb_n, jb_recs in *. lia. }
      split; [reflexivity|]. split; [reflexivity|]. split.
      + unfold mem_inv. cbn [r_seq r_mdb r_hts].
        split; [exact Hm'|]. split; [exact Hh'|]. intros x Hx. rewrite Eu. apply Hin in Hx as [Hx|Hx].
        * specialize (Hf x Hx). unfold jb_n. lia.
        * pose proof (stamp_seq (fst b - 1) (map (norm_rec kp) (concat (snd b))) x Hx) as R.
          rewrite map_length in R. unfold jb_n, jb_recs. lia.
      + split; [exact Eu|]. split; [reflexivity|]. exact Hin.
  Qed.

  Lemma rep_empty_ok d : MemOps.rep (ibc c) mp d [] [] [] 0 -> mem_ok c kp mp d /\ mem_entries mp (Some d) = [].
  Proof.
    intros (I & Eabs & _).
    assert (Ep : mem_pairs mp d = []).
    { rewrite (mem_pairs_abs c kp seek_val mp mpok d [] [] I). exact Eabs. }
    split.
    - split; [exists [], []; exact I|]. unfold mem_keys_okb. rewrite Ep. reflexivity.
    - cbn [mem_entries]. rewrite Ep. reflexivity.
  Qed.

  Lemma reset_mem_ok d : mem_ok c kp mp d ->
    exists d', MemDB.mdb_reset mp d = MemDB.Ok d' /\ mem_ok c kp mp d' /\ mem_entries mp (Some d') = [].
  Proof.
    intros [(A & L & I) _].
    destruct (MemOps.reset_ok (ibc c) mp mpok d (MemInv.inv_head _ _ _ _ _ I)) as (d' & E & R).
    exists d'. split; [exact E|]. apply rep_empty_ok. exact R.
  Qed.

  Lemma reset_mem_inv st : mem_inv st ->
    exists d0, MemDB.mdb_reset mp (r_mdb st) = MemDB.Ok d0 /\ mem_entries mp (Some d0) = [] /\ mem_inv (set_mdb st d0).
  Proof.
    intros (Hm & Hh & _). destruct (reset_mem_ok (r_mdb st) Hm) as (d0 & Er & Hm0 & He0).
    exists d0. split; [exact Er|]. split; [exact He0|]. split; [exact Hm0|]. split; [exact Hh|].
    cbn [set_mdb r_mdb]. rewrite He0. intros x [].
  Qed.

  Lemma f_lookup_del_other fs x y : y <> x -> f_lookup (f_del fs x) y = f_lookup fs y.
  Proof.
    intros H. induction fs as [|[z d] fs IH]; [reflexivity|]. unfold f_del in *. cbn [filter fst f_lookup].
    destruct (SW.fd_eqb x z) eqn:E; cbn [negb].
    - apply SweepProofs.fd_eqb_eq in E. subst z. rewrite (proj2 (SweepProofs.fd_eqb_neq y x) H). exact IH.
    - cbn [f_lookup]. destruct (SW.fd_eqb y z); [reflexivity|exact IH].
  Qed.

  Lemma f_lookup_set_other fs x d y : y <> x -> f_lookup (f_set fs x d) y = f_lookup fs y.
  Proof. intros H. unfold f_set. cbn [f_lookup]. rewrite (proj2 (SweepProofs.fd_eqb_neq y x) H). apply f_lookup_del_other. exact H. Qed.

  (* the journal files other than [except] are the same in both storages *)
  Definition same_journals (except : option N) (fs fs' : files) : Prop :=
    forall j, except <> Some j -> f_lookup fs' (SW.FJournal, j) = f_lookup fs (SW.FJournal, j).

  Lemma same_journals_refl e fs : same_journals e fs fs.
  Proof. intros j _. reflexivity. Qed.

  Lemma same_journals_trans e fs1 fs2 fs3 : same_journals None fs1 fs2 -> same_journals e fs2 fs3 -> same_journals e fs1 fs3.
  Proof. intros A B j Hj. rewrite (B j Hj). apply A. discriminate. Qed.

  Lemma same_journals_set_table e fs t d : same_journals e fs (f_set fs (SW.FTable, t) d).
  Proof. intros j _. apply f_lookup_set_other. discriminate. Qed.
  Lemma same_journals_set_manifest e fs t d : same_journals e fs (f_set fs (SW.FManifest, t) d).
  Proof. intros j _. apply f_lookup_set_other. discriminate. Qed.
  Lemma same_journals_del_manifest e fs t : same_journals e fs (f_del fs (SW.FManifest, t)).
  Proof. intros j _. apply f_lookup_del_other. discriminate. Qed.
  Lemma same_journals_del_journal fs o : same_journals (Some o) fs (f_del fs (SW.FJournal, o)).
  Proof. intros j Hj. apply f_lookup_del_other. intros E. injection E as ->. apply Hj. reflexivity. Qed.
  Lemma same_journals_weaken e fs fs' : same_journals None fs fs' -> same_journals e fs fs'.
  Proof. intros H j _. apply H. discriminate. Qed.

  Local Notation flushm := (flush_memdb rp kp mp tp tcrc compress snappy fgen blockSize ri c).

  Lemma flush_memdb_facts st st' : flushm st = OOk st' ->
    r_seq st' = r_seq st /\ r_mdb st' = r_mdb st /\ r_hts st' = r_hts st /\ r_kept st' = r_kept st /\
    same_journals None (c_files (r_c st)) (c_files (r_c st')).
  Proof.
    unfold flush_memdb. destruct (Table.twrite _ _ _ _ _ _ _ _ _) as [file|]; [|discriminate].
    intros E. injection E as <-. cbn [r_seq r_mdb r_hts r_kept r_c c_files].
    repeat split; try reflexivity. apply same_journals_set_table.
  Qed.

  (* the flush that follows a record once the buffer has reached the write buffer size *)
  Definition flush_reset (st1 : rj) : ores rj :=
    odo st2 <- flushm st1; odo d0 <- of_mres (MemDB.mdb_reset mp (r_mdb st2)); OOk (set_mdb st2 d0).

  (* with the flush switched on, a record is replayed as without it, and then the buffer is perhaps flushed *)
  Lemma replay_record_flush o j data st st1 : rrec o false j data st = OOk st1 ->
    rrec o true j data st = OOk st1 \/ rrec o true j data st = flush_reset st1.
  Proof.
    unfold replay_record.
    destruct (decode_to_mem kp bhl (ibc c) mp data (r_seq st) (r_mdb st) (r_hts st)) as [sq bl d hts|e d hts| |];
      try discriminate.
    - cbn [andb]. intros E. injection E as <-. destruct (oo_wbuf o <=? MemDB.mdb_size d)%Z; [right|left]; reflexivity.
    - intros E. left. exact E.
  Qed.

  Lemma flush_reset_facts st1 st' : mem_inv st1 -> flush_reset st1 = OOk st' ->
    exists st2, flushm st1 = OOk st2 /\ r_c st' = r_c st2 /\ r_rec st' = r_rec st2 /\
      r_seq st' = r_seq st1 /\ r_kept st' = r_kept st1 /\ mem_entries mp (Some (r_mdb st')) = [] /\ mem_inv st' /\
      same_journals None (c_files (r_c st1)) (c_files (r_c st')).
  Proof.
    intros Hinv1. unfold flush_reset. destruct (flushm st1) as [st2|e2] eqn:Ef; cbn [obind]; [|discriminate].
    destruct (flush_memdb_facts _ _ Ef) as (Fs & Fm & Fh & Fk & Fj).
    destruct (reset_mem_inv st2) as (d0 & Er & He0 & Hinv');
      [unfold mem_inv in *; rewrite Fs, Fm, Fh; exact Hinv1|].
    rewrite Er. cbn [of_mres obind]. intros E. injection E as <-. exists st2.
    split; [reflexivity|]. split; [reflexivity|]. split; [reflexivity|]. split; [exact Fs|]. split; [exact Fk|].
    split; [exact He0|]. split; [exact Hinv'|exact Fj].
  Qed.

  Lemma replay_record_written_rw o j b st st' :
    oo_strict_j o = false -> jb_ok b -> mem_inv st -> rrec o true j (jb_enc b) st = OOk st' ->
    mem_inv st' /\ same_journals None (c_files (r_c st)) (c_files (r_c st')) /\
    if fst b <? r_seq st
    then r_seq st' = r_seq st /\ r_kept st' = r_kept st
    else r_seq st' = fst b + jb_n b /\ r_kept st' = r_kept st ++ [(fst b, jb_n b)].
  Proof.
    intros Hns Hb Hinv.
    destruct (replay_record_written o j b st Hns Hb Hinv) as (st1 & E1 & Ec1 & Er1 & Hinv1 & Hcase).
    assert (H1 : if fst b <? r_seq st then r_seq st1 = r_seq st /\ r_kept st1 = r_kept st
                 else r_seq st1 = fst b + jb_n b /\ r_kept st1 = r_kept st ++ [(fst b, jb_n b)]).
    { destruct (fst b <? r_seq st); [destruct Hcase as (S1 & _ & _ & K1)|destruct Hcase as (S1 & K1 & _)]; split; assumption. }
    rewrite <- Ec1. destruct (replay_record_flush _ _ _ _ _ E1) as [-> | ->]; intros E.
    - injection E as <-. split; [exact Hinv1|]. split; [apply same_journals_refl|exact H1].
    - destruct (flush_reset_facts _ _ Hinv1 E) as (st2 & _ & _ & _ & -> & -> & _ & Hinv' & J).
      split; [exact Hinv'|]. split; [exact J|exact H1].
  Qed.

  Definition jb_pair (b : jbatch) : N * N := (fst b, jb_n b).

  Lemma replay_recs_written o j bs : oo_strict_j o = false -> Forall jb_ok bs -> forall st, mem_inv st ->
    exists st', replay_recs o false j (map jb_enc bs) st = OOk st' /\ r_c st' = r_c st /\ r_rec st' = r_rec st /\
      mem_inv st' /\
      r_seq st' = snd (accepted bs (r_seq st)) /\
      r_kept st' = r_kept st ++ map jb_pair (fst (accepted bs (r_seq st))) /\
      (forall x, In x (mem_entries mp (Some (r_mdb st'))) <->
                 In x (mem_entries mp (Some (r_mdb st))) \/ In x (flat_map jb_entries (fst (accepted bs (r_seq st))))).
  Proof.
    intros Hns Hbs. induction Hbs as [|b r Hb Hr IH]; intros st Hinv.
    - exists st. cbn [map replay_recs accepted fst snd flat_map]. rewrite app_nil_r.
      split; [reflexivity|]. split; [reflexivity|]. split; [reflexivity|]. split; [exact Hinv|].
      split; [reflexivity|]. split; [reflexivity|].
      intros x. split; [intros H; left; exact H|intros [H|[]]; exact H].
    - destruct (replay_record_written o j b st Hns Hb Hinv) as (st1 & E1 & Ec & Er & Hinv1 & Hcase).
      cbn [map replay_recs accepted]. rewrite E1. cbn [obind].
      destruct (IH st1 Hinv1) as (st' & E' & Ec' & Er' & Hinv' & Es' & Ek' & Hin').
      exists st'. split; [exact E'|]. split; [congruence|]. split; [congruence|]. split; [exact Hinv'|].
      destruct (fst b <? r_seq st) eqn:Elt.
      + destruct Hcase as (S1 & D1 & H1 & K1). rewrite S1 in *. rewrite K1 in Ek'. rewrite D1 in Hin'.
        split; [exact Es'|]. split; [exact Ek'|exact Hin'].
      + destruct Hcase as (S1 & K1 & Hin1). rewrite S1 in *.
        destruct (accepted r (fst b + jb_n b)) as [a e] eqn:Ea. cbn [fst snd] in *.
        split; [exact Es'|]. split.
        * rewrite Ek', K1. cbn [map]. rewrite <- app_assoc. reflexivity.
        * intros x. rewrite Hin', Hin1. cbn [flat_map]. rewrite in_app_iff. tauto.
  Qed.

  Lemma replay_recs_written_rw o j bs : oo_strict_j o = false -> Forall jb_ok bs -> forall st st', mem_inv st ->
    replay_recs o true j (map jb_enc bs) st = OOk st' ->
    mem_inv st' /\ same_journals None (c_files (r_c st)) (c_files (r_c st')) /\
    r_seq st' = snd (accepted bs (r_seq st)) /\
    r_kept st' = r_kept st ++ map jb_pair (fst (accepted bs (r_seq st))).
  Proof.
    intros Hns Hbs. induction Hbs as [|b r Hb Hr IH]; intros st st' Hinv.
    - cbn [map replay_recs accepted fst snd]. intros E. injection E as <-. rewrite app_nil_r.
      split; [exact Hinv|]. split; [apply same_journals_refl|]. split; reflexivity.
    - cbn [map replay_recs]. destruct (rrec o true j (jb_enc b) st) as [st1|e] eqn:E1; cbn [obind]; [|discriminate].
      intros E'. destruct (replay_record_written_rw o j b st st1 Hns Hb Hinv E1) as (Hinv1 & J1 & Hcase).
      destruct (IH st1 st' Hinv1 E') as (Hinv' & J' & Es' & Ek').
      split; [exact Hinv'|]. split; [exact (same_journals_trans None _ _ _ J1 J')|].
      cbn [accepted]. destruct (fst b <? r_seq st).
      + destruct Hcase as (S1 & K1). rewrite S1 in *. rewrite K1 in Ek'. split; assumption.
      + destruct Hcase as (S1 & K1). rewrite S1 in *.
        destruct (accepted r (fst b + jb_n b)) as [a e]. cbn [fst snd] in *.
        split; [exact Es'|]. rewrite Ek', K1. cbn [map]. rewrite <- app_assoc. reflexivity.
  Qed.

  Lemma accepted_app a : forall b cur,
    accepted (a ++ b) cur =
    (fst (accepted a cur) ++ fst (accepted b (snd (accepted a cur))), snd (accepted b (snd (accepted a cur)))).
  Proof.
    induction a as [|x a IH]; intros b cur; cbn [app accepted fst snd].
    - now destruct (accepted b cur).
    - destruct (fst x <? cur); [apply IH|].
      rewrite IH. destruct (accepted a (fst x + jb_n x)) as [u e]. cbn [fst snd app]. reflexivity.
  Qed.
End OpenJournal.
