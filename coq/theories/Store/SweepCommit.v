(* Store/SweepCommit.v — session.commit keeps the invariant Inv of Store/SweepInv.v on both of its paths (newManifest,
   flushManifest) and for every outcome of the write, with what it leaves behind in either case (commit_Inv). *)
From Coq Require Import NArith List Bool Lia.
From GL Require Import Store.Sweep Store.SweepProofs Store.SweepInv.
Import ListNotations.
Open Scope N_scope.

Local Arguments install : simpl never.

(* a failed commit as its caller sees it, for a state s that differs from s0 in none of the fields named *)
Lemma mark_failed_post : forall ko s0 s,
  tb s = tb s0 -> journal s = journal s0 -> fdone s = fdone s0 -> frozen s = frozen s0 -> held s = held s0 ->
  pins s = pins s0 -> (forall k, getjob k s = getjob k s0) -> commit_fail_post ko s0 (mark_failed ko s).
Proof.
  intros ko s0 s E1 E2 E3 E4 E5 E6 Eg. unfold commit_fail_post.
  rewrite <- E1, <- E2, <- E3, <- E4, <- E5, <- E6.
  split; [|split; [|split; [|split; [|split; [|split; [|split]]]]]]; try (destruct ko as [[]|]; reflexivity).
  - intros k' Hk'. rewrite mark_failed_getjob by auto. apply Eg.
  - intros k ->. cbn. rewrite getjob_setjob_eq. reflexivity.
Qed.

(* newManifest fails: the file is removed again, the number given back *)
Lemma new_manifest_fails : forall ko rmok s, Inv s ->
  let m := next s in
  let s1 := set_next (m + 1) s in
  let s3 := fst (do_rm (FManifest, m) rmok RFailed (set_files (fadd (files s1) (FManifest, m)) s1)) in
  Inv (mark_failed ko (reuse_num m s3)) /\ commit_fail_post ko s (mark_failed ko (reuse_num m s3)).
Proof.
  intros ko rmok s H m. cbv zeta.
  destruct (i_n s H) as (A&B&C&D&F).
  assert (H1 : Inv (set_next (m + 1) s)) by (apply bump_next_Inv; auto; unfold m; lia).
  set (s1 := set_next (m + 1) s) in *.
  set (s2 := set_files (fadd (files s1) (FManifest, m)) s1).
  assert (H2 : Inv s2) by (apply set_files_Inv; auto; apply fadd_NoDup, (i_fl s H)).
  assert (Hn : needed s2 (FManifest, m) = false).
  { unfold needed. cbn. apply not_true_is_false. intro E. apply existsb_exists in E. destruct E as [v0 [Hv0 E]].
    apply N.eqb_eq in E. pose proof (i_v4 s H v0 Hv0) as E4. specialize (B _ E4). unfold m in *. lia. }
  pose proof (do_rm_Inv (FManifest, m) rmok RFailed s2 H2 (or_introl Hn)) as H3.
  destruct (do_rm_form (FManifest, m) rmok RFailed s2) as (fl & r & E & _). rewrite E in *.
  set (s3 := set_residue r (set_files fl (set_trace ((FManifest, m, needed s2 (FManifest, m)) :: trace s2) s2))) in *.
  assert (H4 : Inv (reuse_num m s3)).
  { apply reuse_Inv; auto; cbn.
    - destruct (tget (tb s) m) eqn:Eg; auto. destruct (D m _ Eg). unfold m in *. lia.
    - unfold m. lia.
    - intros Em. specialize (B _ Em). unfold m in *. lia.
    - intros Em. specialize (C _ Em). unfold m in *. lia.
    - intros Hp. specialize (F _ Hp). unfold m in *. lia.
    - intros v0 u Hv0 Hu ->. destruct (i_v7 s H v0 Hv0) as [_ L]. specialize (L _ Hu). unfold m in *. lia. }
  split; [apply mark_failed_Inv; auto|].
  unfold reuse_num. cbn [next s3 set_residue set_files set_trace s2 s1 set_next]. rewrite N.eqb_refl.
  apply mark_failed_post; reflexivity.
Qed.

Lemma commit_ok_post_do_rm : forall ko jn s s' f ok why,
  commit_ok_post ko jn s s' -> commit_ok_post ko jn s (fst (do_rm f ok why s')).
Proof. intros ko jn s s' f ok why P. destruct (do_rm_form f ok why s') as (fl & r & -> & _). exact P. Qed.

Lemma commit_Inv : forall ko dels jn rot o rmok s, Inv s ->
  (jn = None \/ jn = Some (journal s)) ->
  Inv (fst (commit ko dels jn rot o rmok s)) /\
  (snd (commit ko dels jn rot o rmok s) = true -> commit_ok_post ko jn s (fst (commit ko dels jn rot o rmok s))) /\
  (snd (commit ko dels jn rot o rmok s) = false -> commit_fail_post ko s (fst (commit ko dels jn rot o rmok s))).
Proof.
  intros ko dels jn rot o rmok s H Hjn.
  destruct (i_n s H) as (A&B&C&D&F).
  assert (Hsj : match jn with Some j => j | None => sjnum s end <= journal s).
  { destruct Hjn as [ -> | -> ]; [apply (proj2 (i_v5 s H)) | lia]. }
  assert (Hsj6 : fdone s = true -> match jn with Some j => j | None => sjnum s end = journal s).
  { intros Ef. destruct Hjn as [ -> | -> ]; auto. apply (proj2 (i_v6 s H Ef)). }
  destruct (negb (hasman s) || mfailed s || rot) eqn:Epath.
  - (* newManifest *)
    destruct o;
      [|rewrite commit_new_fail by (auto; discriminate); destruct (new_manifest_fails ko rmok s H) as [I P];
        split; [exact I|]; split; [discriminate|intros _; exact P]..].
    rewrite commit_new_ok by exact Epath. cbn [fst snd].
    set (m := next s).
    assert (H1 : Inv (set_next (m + 1) s)) by (apply bump_next_Inv; auto; unfold m; lia).
    set (s1 := set_next (m + 1) s) in *.
    destruct (install_core ko dels jn s1 H1) as (K2&N2&H2&P2&J2).
    pose proof (install_back ko dels jn s1) as Hback.
    pose proof (install_back_same ko dels jn s1) as Hsame.
    pose proof (install_tab ko dels jn s1) as Htab.
    cbn in N2, H2, P2.
    assert (Hv_tab : forall t, In t (tabs_of (tb (install ko dels jn s1))) <-> tget (tb (install ko dels jn s1)) t = Some CTab)
      by (intros; apply tabs_of_In; auto).
    (* the state once the new manifest is current *)
    assert (H5 : Inv (new_man_state ko dels jn s) /\ commit_ok_post ko jn s (new_man_state ko dels jn s)).
    { unfold new_man_state. fold m. fold s1. rewrite (install_eq ko dels jn s1).
      set (tb2 := tb (install ko dels jn s1)) in *. split.
      * constructor; cbn.
        -- apply fadd_NoDup, (i_fl s H).
        -- auto.
        -- destruct N2 as (A2&B2&C2&D2&F2').
           split; [|split; [|split; [|split]]]; auto.
           ++ intros x Hx. inversion Hx. lia.
           ++ intros t c Hc. destruct (D2 t c Hc) as (D21&D22&D23&D24).
              destruct (Hback _ _ Hc) as [c0 [Hc0 _]]. destruct (D t c0 Hc0) as (D01&_).
              repeat split; auto. intros E. inversion E. unfold m in *. lia.
        -- auto.
        -- auto.
        -- intros k Hoff. apply (J2 k). rewrite getjob_install. destruct k; exact Hoff.
        -- intros v0 t c. cbn. intros [ <- |[]] Ht Hc. left. apply Hv_tab in Ht. cbn in Hc. congruence.
        -- intros _. cbn. eexists. split; [reflexivity|]. exact Hv_tab.
        -- intros v0 [ <- |[]]. reflexivity.
        -- intros v0 [ <- |[]]. reflexivity.
        -- split; [intros v0 [ <- |[]]; cbn|]; auto.
        -- intros Ef. split; [intros v0 [ <- |[]]; cbn|]; auto.
        -- intros v0 [ <- |[]]. cbn.
           assert (Htl : forall t, In t (tabs_of tb2) -> t < m + 1).
           { intros t Ht. apply Hv_tab in Ht. destruct N2 as (_&_&_&D2&_). apply (D2 t _ Ht). }
           split; [split; cbn; [lia | auto] | auto].
        -- apply (i_t s H).
        -- apply (i_o s H).
      * unfold commit_ok_post. cbn.
        split; [|split; [|split; [|split]]].
        -- intros t c' Hc Hn1 Hn2. apply (Hsame t c'); auto.
        -- intros k Ek t Hc. subst ko.
           destruct (Hback _ _ Hc) as [c0 [Hc0 [E|[(_&E&_)|[k0 (_&_&E)]]]]]; try discriminate.
           subst c0. assert (Ht : tget tb2 t = Some CTab).
           { apply Htab. right. exists k. auto. }
           congruence.
        -- intros j Ej. rewrite Ej. split; auto. intros v0 [ <- |[]]. reflexivity.
        -- intros k. destruct k; reflexivity.
        -- repeat split; auto. }
    destruct H5 as [H5 P5].
    destruct (man s) as [old|] eqn:Em; [|split; [exact H5|split; [intros _; exact P5|discriminate]]].
    split; [|split; [|discriminate]].
    + apply do_rm_Inv; auto. left. unfold needed, new_man_state. cbn.
      rewrite orb_false_r. apply N.eqb_neq. specialize (B old eq_refl). lia.
    + intros _. apply commit_ok_post_do_rm, P5.
  - (* flushManifest *)
    rewrite commit_flush by exact Epath. cbv zeta.
    apply orb_false_iff in Epath. destruct Epath as [Epath _]. apply orb_false_iff in Epath. destruct Epath as [_ Emf].
    destruct (i_v2 s H Emf) as [v0 [Ev0 Hv0]].
    rewrite Ev0. cbn [hd].
    set (r := apply_rec v0 (outs_of ko s) dels jn (next s)).
    assert (Hv0in : In v0 (views s)) by (rewrite Ev0; left; auto).
    assert (Houts : forall t, In t (outs_of ko s) <-> exists k, ko = Some k /\ tget (tb s) t = Some (COut k)).
    { intros t. unfold outs_of. destruct ko as [k|].
      - rewrite outs_In by apply (i_k s H). split; [intros; exists k; auto | intros [k0 [E Ht]]; inversion E; subst; auto].
      - split; [intros [] | intros [k0 [E _]]; discriminate]. }
    assert (Hr_tabs : forall t, In t (v_tabs r) <->
              (tget (tb s) t = Some CTab /\ ~ In t dels) \/ (exists k, ko = Some k /\ tget (tb s) t = Some (COut k))).
    { intros t. unfold r, apply_rec. cbn. rewrite in_app_iff, filter_In, negb_true_iff, nmem_false, Hv0, Houts. tauto. }
    assert (Hr3 : v_prev r = None) by (apply (i_v3 s H v0 Hv0in)).
    assert (Hr4 : man s = Some (v_man r)) by (apply (i_v4 s H v0 Hv0in)).
    assert (Hr5 : v_jnum r <= journal s).
    { unfold r, apply_rec. cbn. destruct Hjn as [ -> | -> ]; [apply (proj1 (i_v5 s H) v0 Hv0in) | lia]. }
    assert (Hr6 : fdone s = true -> v_jnum r = journal s).
    { intros Ef. unfold r, apply_rec. cbn. destruct Hjn as [ -> | -> ]; auto. apply (proj1 (i_v6 s H Ef) v0 Hv0in). }
    assert (Hr8 : forall t, In t (v_tabs r) -> t < next s).
    { intros t Ht. apply Hr_tabs in Ht. destruct Ht as [[Ht _]|[k [_ Ht]]]; apply (D t _ Ht). }
    assert (Hr7 : view_wf r).
    { split; auto; try (unfold r, apply_rec; cbn; apply (B _ Hr4)). }
    destruct o.
    + (* success *)
      destruct (install_core ko dels jn s H) as (K2&N2&H2&P2&J2).
      assert (Hr_tab2 : forall t, In t (v_tabs r) <-> tget (tb (install ko dels jn s)) t = Some CTab).
      { intros t. rewrite Hr_tabs. symmetry. apply (install_tab ko dels jn s). }
      cbn [fst snd]. rewrite (install_eq ko dels jn s). set (tb2 := tb (install ko dels jn s)) in *.
      split; [|split; [|discriminate]].
      * constructor; cbn.
        -- apply (i_fl s H).
        -- auto.
        -- auto.
        -- auto.
        -- auto.
        -- intros k Hoff. apply (J2 k). rewrite getjob_install. destruct k; exact Hoff.
        -- intros v t c. cbn. intros [ <- |[]] Ht Hc. left. apply Hr_tab2 in Ht. congruence.
        -- intros _. cbn. exists r. split; auto.
        -- intros v [ <- |[]]. auto.
        -- intros v [ <- |[]]. auto.
        -- split; [intros v [ <- |[]]; auto | auto].
        -- intros Ef. split; [intros v [ <- |[]]; auto | auto].
        -- intros v [ <- |[]]. split; auto.
        -- apply (i_t s H).
        -- apply (i_o s H).
      * intros _. unfold commit_ok_post. cbn.
        split; [|split; [|split; [|split]]].
        -- intros t c' Hc Hn1 Hn2. apply (install_back_same ko dels jn s t c'); auto.
        -- intros k Ek t Hc.
           destruct (install_back ko dels jn s _ _ Hc) as [c0 [Hc0 [E|[(_&E&_)|[k0 (_&_&E)]]]]]; try discriminate.
           subst c0. assert (Ht : tget tb2 t = Some CTab) by (apply (install_tab ko dels jn s); right; exists k; auto).
           congruence.
        -- intros j Ej. rewrite Ej. split; auto. intros v [ <- |[]]. unfold r, apply_rec. cbn. rewrite Ej. auto.
        -- intros k. destruct k; reflexivity.
        -- repeat split; auto.
    + (* nothing written *)
      cbn [fst snd]. split; [|split; [discriminate|]].
      * apply mark_failed_Inv. constructor; cbn; try apply H. intros E; discriminate.
      * intros _. apply mark_failed_post; reflexivity.
    + (* the record may or may not be found later *)
      cbn [fst snd].
      split; [|split; [discriminate | intros _; apply mark_failed_post; reflexivity]].
      (* the failure is noted first, so that the tables of r count as those of a failed commit *)
      destruct (mark_failed_post ko s s eq_refl eq_refl eq_refl eq_refl eq_refl eq_refl (fun k => eq_refl))
        as (M1&M6&M8&_&_&_&_&M9).
      assert (M2 : views (mark_failed ko s) = views s) by (destruct ko as [[]|]; reflexivity).
      assert (M4 : next (mark_failed ko s) = next s) by (destruct ko as [[]|]; reflexivity).
      assert (M5 : man (mark_failed ko s) = man s) by (destruct ko as [[]|]; reflexivity).
      assert (Eswap : mark_failed ko (set_mfailed true (set_views ([v0] ++ [r]) s)) =
                      set_mfailed true (set_views (views (mark_failed ko s) ++ [r]) (mark_failed ko s))).
      { rewrite M2, Ev0. destruct ko as [[]|]; reflexivity. }
      cbn [app] in Eswap |- *. rewrite Eswap.
      apply add_view_Inv; auto.
      * apply mark_failed_Inv; auto.
      * intros t c Ht. rewrite M1. intros Hc. apply Hr_tabs in Ht.
        destruct Ht as [[Ht _]|[k [Ek Ht]]]; [left; congruence|]. right. exists k. split; [congruence | auto].
      * rewrite M5. auto.
      * rewrite M6. auto.
      * rewrite M8, M6. auto.
      * rewrite M4. auto.
Qed.
