(* Store/CrashBytesProofs.v — a byte-level crash image of a journal-format file is read back as one of the
   record-level images Store/Crash.v quantifies over.  Built on C12's results: a pure cut is
   Codec/JournalCutProofs.truncation_exact; for a cut followed by zeros or garbage the records wholly inside the
   cut come first (prefix_complete) and, under the hypothesis no_forgery_tail, nothing else is made up. *)
From GL Require Import Base.Bytes Base.BytesProofs Codec.Journal Codec.JournalSpec Codec.JournalLemmas
  Codec.JournalLayoutProofs Codec.JournalReaderProofs Codec.JournalWriterProofs Codec.JournalProofs
  Codec.JournalDamageProofs Codec.JournalCutProofs Store.Crash Store.CrashProofs Store.CrashBytes.
From GL Require Mem.ListLemmas.
From Coq Require Import PeanoNat Lia.

Lemma hd_skipn_nth {A} (d : A) i : forall l, hd d (skipn i l) = nth i l d.
Proof. induction i as [|i IH]; intros [|x l]; try reflexivity. cbn [skipn nth]. apply IH. Qed.

Section CrashBytesProofs.
  Variable crc : bytes -> N.
  Variable p : jparams.
  Hypothesis pok : jparams_ok p.

  Lemma recs_of_prefix m (rs : list bytes) t : end_ok false t -> recs_of (map Rec (firstn m rs) ++ t) = firstn m rs.
  Proof. intros Ht. rewrite recs_of_app, recs_of_recs, (recs_of_end false t Ht). apply app_nil_r. Qed.

  (* Reading the first n bytes of the stream written for rs keeps exactly the records that lie wholly inside
     those n bytes. *)
  Lemma cut_records_exact ck fl (rs : list bytes) n :
    exists m, (m <= length rs)%nat /\
      recs_of (jread crc p false ck (firstn n (jwrite crc p fl rs))) = firstn m rs /\
      (length (jwrite crc p fl (firstn m rs)) <= n)%nat /\
      forall k, (k <= length rs)%nat -> (length (jwrite crc p fl (firstn k rs)) <= n)%nat -> (k <= m)%nat.
  Proof.
    destruct (truncation_exact crc p pok false ck fl rs n) as (m & t & E & Ht & Hm & Hin & Hmax).
    exists m. rewrite E, (recs_of_prefix m rs t Ht). auto.
  Qed.

  Lemma lead_chunks_spec evs : forall cs rest, lead_chunks evs = (cs, rest) -> evs = map BChunk cs ++ rest.
  Proof.
    induction evs as [|e evs IH]; intros cs rest H; cbn [lead_chunks] in H.
    - injection H as <- <-. reflexivity.
    - destruct e as [c|r sz].
      + destruct (lead_chunks evs) as (cs0, r0). injection H as <- <-. cbn [map app]. f_equal. apply IH. reflexivity.
      + injection H as <- <-. reflexivity.
  Qed.

  Lemma chunks_prefixb_sound a : forall b, chunks_prefixb a b = true -> exists c, b = a ++ c.
  Proof.
    induction a as [|x a IH]; intros b H.
    - exists b. reflexivity.
    - destruct b as [|y b]; cbn [chunks_prefixb] in H; [discriminate|].
      apply andb_true_iff in H. destruct H as (Hx & Hr). apply chunk_eqb_eq in Hx. subst y.
      destruct (IH b Hr) as (c & ->). exists c. reflexivity.
  Qed.

  Lemma chunks_prefixb_refl a : forall c, chunks_prefixb a (a ++ c) = true.
  Proof.
    induction a as [|x a IH]; intros c; [reflexivity|]. cbn [app chunks_prefixb]. rewrite IH.
    unfold chunk_eqb. rewrite N.eqb_refl. replace (beq (c_data x) (c_data x)) with true; [reflexivity|].
    symmetry. apply beq_eq. reflexivity.
  Qed.

  Lemma assemble_idle_bads t : forallb is_bad t = true -> outs (assemble p false AIdle t) = [].
  Proof.
    induction t as [|e t IH]; intros H; [reflexivity|].
    destruct e as [c|r sz]; cbn in H; [discriminate|]. cbn [assemble]. rewrite outs_drop. apply IH. exact H.
  Qed.

  Lemma assemble_in_bads acc t : forallb is_bad t = true -> outs (assemble p false (AIn acc) t) = [Skipped].
  Proof.
    destruct t as [|e t]; intros H; [reflexivity|].
    destruct e as [c|r sz]; cbn in H; [discriminate|]. cbn [assemble]. rewrite outs_drop.
    change (outs (Skipped :: assemble p false AIdle t)) with (Skipped :: outs (assemble p false AIdle t)).
    rewrite assemble_idle_bads by exact H. reflexivity.
  Qed.

  (* the first k chunks of the records rs, then rejected regions: a prefix of rs comes out *)
  Lemma assemble_prefix_bads rs css : Forall2 (rec_chunks p) rs css -> forall k t,
    forallb is_bad t = true ->
    exists m tl,
      outs (assemble p false AIdle (map BChunk (firstn k (concat css)) ++ t)) = map Rec (firstn m rs) ++ tl /\
      end_ok false tl /\ (m <= length rs)%nat.
  Proof.
    intros H k t Ht. destruct (assemble_cut crc p pok false rs css H k t) as (m & tl & Em & Hm & _ & _ & Hrest).
    exists m, tl. split; [exact Em|]. split; [|exact Hm].
    destruct Hrest as [->|(r & cs & j & Hr & Hj & ->)]; [left; apply assemble_idle_bads; exact Ht|].
    apply (assemble_rec_cut crc p pok false r cs j t Hr Hj); [left; apply assemble_idle_bads; exact Ht|].
    intros acc. apply assemble_in_bads. exact Ht.
  Qed.

  (* under the hypothesis, what is read is a prefix of rs: the accepted chunks are the first of those written *)
  Lemma tail_read ck (rs : list bytes) d : no_forgery_tail crc p ck rs d = true ->
    exists m, (m <= length rs)%nat /\ recs_of (jread crc p false ck d) = firstn m rs.
  Proof.
    intros Hnf. unfold jread. rewrite (reader_factor crc p pok).
    destruct (chunks_of_ex crc p pok rs) as (css & Hc).
    pose proof (chunks_of_all p pok rs css Hc) as E2. destruct Hc as (H2 & _).
    unfold no_forgery_tail in Hnf. destruct (lead_chunks (stream_events crc p ck d)) as (cs, rest) eqn:Elc.
    apply andb_true_iff in Hnf. destruct Hnf as (Hpre & Hbad).
    apply lead_chunks_spec in Elc. destruct (chunks_prefixb_sound _ _ Hpre) as (c2 & Ec2). rewrite E2 in Ec2.
    assert (Ec : cs = firstn (length cs) (concat css)).
    { rewrite Ec2, firstn_app, firstn_all, Nat.sub_diag. cbn [firstn]. now rewrite app_nil_r. }
    rewrite Elc, Ec.
    destruct (assemble_prefix_bads rs css H2 (length cs) rest Hbad) as (m & tl & Em & Hok & Hm).
    exists m. split; [exact Hm|]. rewrite Em. apply recs_of_prefix, Hok.
  Qed.

  (* the stream written for a prefix of the records is a prefix of the stream *)
  Lemma jwrite_firstn_len fl (rs : list bytes) k :
    (length (jwrite crc p fl (firstn k rs)) <= length (jwrite crc p fl rs))%nat.
  Proof.
    rewrite !(jwrite_layout crc p pok). destruct (layout_split crc p pok rs k) as (_ & _ & Hext).
    destruct (render_ext crc p _ _ Hext) as (y & ->). rewrite app_length. lia.
  Qed.

  (* Reading "the first n bytes of the stream written for rs, then anything" under the hypothesis: a
     prefix of rs that contains every record written within the n bytes. *)
  Lemma tail_records ck fl (rs : list bytes) n tail :
    no_forgery_tail crc p ck rs (firstn n (jwrite crc p fl rs) ++ tail) = true ->
    exists m, (m <= length rs)%nat /\
      recs_of (jread crc p false ck (firstn n (jwrite crc p fl rs) ++ tail)) = firstn m rs /\
      forall k, (length (jwrite crc p fl (firstn k rs)) <= n)%nat -> (Nat.min k (length rs) <= m)%nat.
  Proof.
    intros Hnf. destruct (tail_read ck rs _ Hnf) as (m & Hm & Em).
    exists m. split; [exact Hm|]. split; [exact Em|]. intros k Hk.
    set (w := jwrite crc p fl rs) in *. set (n' := Nat.min n (length w)).
    assert (En : firstn n w = firstn n' w).
    { destruct (Nat.le_ge_cases n (length w)); unfold n'; [now rewrite Nat.min_l|].
      rewrite Nat.min_r, firstn_all, firstn_all2; auto. }
    pose proof (jwrite_firstn_len fl rs k) as Hw. fold w in Hw.
    destruct (prefix_complete crc p pok false ck fl rs (firstn n w ++ tail) n' k) as (t & E); [|lia|].
    - rewrite En, firstn_app, firstn_firstn, Nat.min_id, firstn_length.
      replace (n' - Nat.min n' (length w))%nat with 0%nat by lia. apply app_nil_r.
    - rewrite E, recs_of_app, recs_of_recs in Em. apply (f_equal (@length _)) in Em.
      rewrite app_length, !firstn_length in Em. lia.
  Qed.

  Lemma lead_chunks_run l tl : tail_ok tl -> lead_chunks (map BChunk l ++ tl) = (l, tl).
  Proof.
    intros Ht. induction l as [|c l IH]; cbn [map app lead_chunks].
    - destruct Ht as [->|(r & sz & ->)]; reflexivity.
    - rewrite IH. reflexivity.
  Qed.

  (* the hypothesis holds of every pure cut *)
  Lemma no_forgery_tail_cut ck fl (rs : list bytes) n :
    no_forgery_tail crc p ck rs (firstn n (jwrite crc p fl rs) ++ []) = true.
  Proof.
    rewrite app_nil_r, (jwrite_layout crc p pok).
    destruct (layout_chunks crc p pok rs) as ((W1 & W2) & css & E & H).
    replace (firstn n (render_lay crc p (layout p rs)))
      with (takeN (N.of_nat n) (render_lay crc p (layout p rs)))
      by (unfold takeN; rewrite Nat2N.id; reflexivity).
    destruct (stream_events_cut_gen crc p pok ck _ _ W1 W2 (N.of_nat n)) as (tl & Ek & Ht).
    change (flat_map (render_closed crc p) (l_closed (layout p rs)) ++ render_chunks crc (l_open (layout p rs)))
      with (render_lay crc p (layout p rs)) in Ek.
    change (concat (l_closed (layout p rs)) ++ l_open (layout p rs)) with (lay_chunks (layout p rs)) in Ek.
    unfold no_forgery_tail. rewrite Ek, (lead_chunks_run _ _ Ht).
    apply andb_true_iff. split.
    - set (q := fitb p _ _ _). rewrite <- (firstn_skipn q (lay_chunks (layout p rs))) at 2.
      apply chunks_prefixb_refl.
    - destruct Ht as [->|(r & sz & ->)]; reflexivity.
  Qed.

  Lemma wRecords_app a : forall s fl b,
    wRecords crc p s fl (a ++ b) =
    wbind (wRecords crc p s fl a) (fun s1 => wRecords crc p s1 (skipn (length a) fl) b).
  Proof.
    induction a as [|r a IH]; intros s fl b; [reflexivity|].
    cbn [app wRecords length]. destruct (wRecord crc p s r (hd false fl)) as [s1| |]; cbn [wbind]; [|reflexivity|reflexivity].
    rewrite IH. destruct fl as [|f fl]; [|reflexivity]. cbn [tl skipn]. now rewrite skipn_nil.
  Qed.

  Lemma writePending_flushed s s' : writePending crc p s = WOk s' -> w_pending s' = false /\ w_written s' = w_j s'.
  Proof.
    unfold writePending. intros H.
    destruct (w_pending s) eqn:Ep.
    - destruct (fillHeader crc p true s) as [s1| |]; cbn [wbind] in H; try discriminate.
      destruct (slice _ _ _); [|discriminate]. injection H as <-. cbn. split; reflexivity.
    - cbn [wbind] in H. destruct (slice _ _ _); [|discriminate]. injection H as <-. cbn. split; [exact Ep|reflexivity].
  Qed.

  Lemma writePending_idem s s' : w_pending s = false -> w_written s = w_j s ->
    writePending crc p s = WOk s' -> w_out s' = w_out s.
  Proof.
    intros Ep Ew H. unfold writePending in H. rewrite Ep in H. cbn [wbind] in H.
    destruct (slice (w_buf s) (w_written s) (w_j s)) as [d|] eqn:Es; [|discriminate].
    injection H as <-. cbn. apply slice_len in Es. destruct Es as (_ & _ & Ld).
    rewrite Ew, N.sub_diag in Ld. apply lenN_0 in Ld. subst d. apply app_nil_r.
  Qed.

  (* writeJournal / flushManifest call Sync right after Flush.  When the writer model has written k records
     and flushed after the k-th, the bytes that have reached the file are exactly jwrite fl (firstn k rs)
     — the synced_len of Store/CrashBytes.v — and writing the remaining records continues from that state. *)
  Theorem sync_point_bytes fl (rs : list bytes) k :
    (1 <= k <= length rs)%nat -> nth (k - 1) fl false = true ->
    exists s, wRecords crc p (w_init p) fl (firstn k rs) = WOk s /\
              w_out s = jwrite crc p fl (firstn k rs) /\
              wRecords crc p (w_init p) fl rs = wRecords crc p s (skipn k fl) (skipn k rs).
  Proof.
    intros Hk Hfl.
    destruct (writer_total crc p pok fl (firstn k rs)) as (s' & Eres & Eout).
    unfold jwrite_res in Eres.
    destruct (wRecords crc p (w_init p) fl (firstn k rs)) as [s| |] eqn:Er; cbn [wbind] in Eres; try discriminate.
    exists s. split; [reflexivity|]. split.
    - rewrite <- Eout. symmetry. unfold wClose in Eres.
      (* the k-th record was flushed: s is the result of a writePending *)
      assert (Hs : w_pending s = false /\ w_written s = w_j s).
      { assert (Ek : firstn k rs = firstn (k - 1) rs ++ [nth (k - 1) rs []]).
        { replace k with (S (k - 1)) at 1 by lia. apply ListLemmas.firstn_S_nth. lia. }
        rewrite Ek, wRecords_app in Er.
        destruct (wRecords crc p (w_init p) fl (firstn (k - 1) rs)) as [s0| |]; cbn [wbind] in Er; try discriminate.
        cbn [wRecords] in Er.
        assert (Eh : hd false (skipn (length (firstn (k - 1) rs)) fl) = true).
        { rewrite firstn_length, Nat.min_l by lia. rewrite <- Hfl.
          apply hd_skipn_nth. }
        rewrite Eh in Er. unfold wRecord in Er.
        destruct (wNext crc p s0) as [s1| |]; cbn [wbind] in Er; try discriminate.
        destruct (wWrite crc p _ s1 _) as [s2| |]; cbn [wbind] in Er; try discriminate.
        destruct (wFlush crc p s2) as [s3| |] eqn:Ef; cbn [wbind] in Er; try discriminate.
        injection Er as <-. unfold wFlush in Ef. apply (writePending_flushed s2 s3 Ef). }
      destruct Hs as (Hp & Hw). apply (writePending_idem s s' Hp Hw Eres).
    - rewrite <- (firstn_skipn k rs) at 1. rewrite wRecords_app, Er. cbn [wbind].
      rewrite firstn_length, Nat.min_l by lia. reflexivity.
  Qed.
End CrashBytesProofs.

Section RecsProofs.
  Variable crc : bytes -> N.
  Variable p : jparams.
  Hypothesis pok : jparams_ok p.
  Variable A : Type.
  Variable enc : A -> bytes.
  Variable dec : bytes -> option A.

  (* the decoder contract, for the records that were written *)
  Definition dec_ok (recs : list A) : Prop := Forall (fun a => dec (enc a) = Some a) recs.

  Lemma keep_decoded_enc recs : dec_ok recs -> keep_decoded A dec (map enc recs) = recs.
  Proof.
    induction 1 as [|a recs Ha Hr IH]; [reflexivity|].
    cbn [map keep_decoded flat_map]. rewrite Ha. cbn [app]. f_equal. exact IH.
  Qed.

  Lemma dec_ok_firstn recs m : dec_ok recs -> dec_ok (firstn m recs).
  Proof.
    intros H. apply Forall_forall. intros a Ha. apply (proj1 (Forall_forall _ _) H).
    rewrite <- (firstn_skipn m recs). apply in_or_app. now left.
  Qed.

  (* A cut at any byte, followed by anything that satisfies the hypothesis: recovery keeps a prefix of the
     records that contains every record written and flushed within the kept bytes. *)
  Theorem byte_image_is_record_image ck fl recs n tail :
    dec_ok recs ->
    no_forgery_tail crc p ck (map enc recs) (crash_bytes crc p A enc fl recs n tail) = true ->
    exists m, (m <= length recs)%nat /\
      recover_bytes crc p A dec ck (crash_bytes crc p A enc fl recs n tail) = firstn m recs /\
      forall k, (synced_len crc p A enc fl recs k <= n)%nat -> (Nat.min k (length recs) <= m)%nat.
  Proof.
    intros Hd Hnf. unfold crash_bytes, jbytes, synced_len, recover_bytes, recover_records in *.
    destruct (tail_records crc p pok ck fl (map enc recs) n tail Hnf) as (m & Hm & Em & Hk).
    rewrite map_length in Hm, Hk. exists m. split; [exact Hm|]. split.
    - rewrite Em, firstn_map. apply keep_decoded_enc. apply dec_ok_firstn. exact Hd.
    - intros k Hlen. apply Hk. rewrite firstn_map. exact Hlen.
  Qed.

  (* the same for a pure cut: no hypothesis (C12's truncation_exact), and m is exactly the
     number of records whose stream lies within the first n bytes *)
  Theorem byte_cut_is_record_image ck fl recs n :
    dec_ok recs ->
    exists m, (m <= length recs)%nat /\
      recover_bytes crc p A dec ck (crash_bytes crc p A enc fl recs n []) = firstn m recs /\
      (synced_len crc p A enc fl recs m <= n)%nat /\
      forall k, (synced_len crc p A enc fl recs k <= n)%nat -> (Nat.min k (length recs) <= m)%nat.
  Proof.
    intros Hd. unfold crash_bytes, jbytes, synced_len, recover_bytes, recover_records in *.
    rewrite app_nil_r.
    destruct (cut_records_exact crc p pok ck fl (map enc recs) n) as (m & Hm & Em & Hin & Hk).
    rewrite map_length in Hm, Hk. exists m. split; [exact Hm|]. split; [|split].
    - rewrite Em, firstn_map. apply keep_decoded_enc. apply dec_ok_firstn. exact Hd.
    - unfold jbytes. rewrite <- firstn_map. exact Hin.
    - intros k Hlen. destruct (Nat.le_gt_cases k (length recs)) as [Hle|Hgt].
      + rewrite Nat.min_l by exact Hle. apply Hk; [exact Hle|]. unfold jbytes in Hlen. rewrite firstn_map. exact Hlen.
      + rewrite Nat.min_r by lia. apply Hk; [lia|]. unfold jbytes in Hlen.
        rewrite firstn_all2 by (rewrite map_length; lia).
        rewrite firstn_all2 in Hlen by lia. exact Hlen.
  Qed.

  (* what is_crash_bytes gives: a record prefix that contains the synced records *)
  Lemma crash_bytes_prefix ck recs k d :
    dec_ok recs -> is_crash_bytes crc p enc ck recs k d ->
    exists k', (k <= k')%nat /\ recover_bytes crc p A dec ck d = firstn k' recs.
  Proof.
    intros Hd (fl & n & tail & Hs & -> & Hnf).
    destruct (byte_image_is_record_image ck fl recs n tail Hd Hnf) as (m & Hm & Em & Hk).
    specialize (Hk k Hs). rewrite Em.
    destruct (Nat.le_gt_cases k m) as [Hle|Hgt].
    - exists m. split; [exact Hle|reflexivity].
    - exists k. split; [lia|]. assert (m = length recs) by lia. subst m.
      now rewrite !firstn_all2 by lia.
  Qed.
End RecsProofs.

Section ImageProofs.
  Variable crc : bytes -> N.
  Variable p : jparams.
  Hypothesis pok : jparams_ok p.
  Variable enc_batch : batch -> bytes.
  Variable dec_batch : bytes -> option batch.
  Variable enc_edit : medit -> bytes.
  Variable dec_edit : bytes -> option medit.

  Definition codecs_ok (s : pstate) : Prop :=
    (forall b, In b (p_issued s) -> dec_batch (enc_batch b) = Some b) /\
    (forall e, In e (p_man s) -> dec_edit (enc_edit e) = Some e).

  Lemma jprefix_eq j k : (j_synced j <= k)%nat ->
    jprefix j k = {| j_num := j_num j; j_recs := firstn k (j_recs j); j_synced := j_synced j |}.
  Proof. intros H. unfold jprefix. f_equal. lia. Qed.

  (* Every byte-level crash image is, after the tolerant read, one of the record-level images. *)
  Theorem byte_image_is_image ck s b :
    pinv s -> codecs_ok s -> is_byte_image crc p enc_batch enc_edit ck s b ->
    is_image s (abs_image crc p dec_batch dec_edit ck s b).
  Proof.
    intros Hinv (Hcb & Hce) (Hl & Hf & Hm).
    assert (Dl : dec_ok batch enc_batch dec_batch (j_recs (p_live s))).
    { apply Forall_forall. intros x Hx. apply Hcb. apply (pi_issued s Hinv). right. left. exact Hx. }
    assert (Dm : dec_ok medit enc_edit dec_edit (p_man s)).
    { apply Forall_forall. intros x Hx. apply Hce. exact Hx. }
    unfold is_image, abs_image. cbn [i_live i_frozen i_man]. split; [|split].
    - destruct (crash_bytes_prefix crc p pok batch enc_batch dec_batch ck _ _ _ Dl Hl) as (k & Hk & Ek).
      exists k. split; [exact Hk|]. rewrite Ek, jprefix_eq by exact Hk. reflexivity.
    - destruct (p_frozen s) as [f|] eqn:Ef; destruct (bi_frozen b) as [d|]; try exact Hf; try exact I.
      assert (Df : dec_ok batch enc_batch dec_batch (j_recs f)).
      { apply Forall_forall. intros x Hx. apply Hcb. apply (pi_issued s Hinv). right. right.
        exists f. split; [exact Ef|exact Hx]. }
      destruct (crash_bytes_prefix crc p pok batch enc_batch dec_batch ck _ _ _ Df Hf) as (k & Hk & Ek).
      exists k. split; [exact Hk|]. rewrite Ek, jprefix_eq by exact Hk. reflexivity.
    - destruct (crash_bytes_prefix crc p pok medit enc_edit dec_edit true _ _ _ Dm Hm) as (k & Hk & Ek).
      exists k. split; [exact Hk|exact Ek].
  Qed.

  (* crash_safe, with the files given as bytes *)
  Theorem crash_safe_bytes ck ops b :
    codecs_ok (prun ops) -> is_byte_image crc p enc_batch enc_edit ck (prun ops) b ->
    let r := recover_image_bytes crc p dec_batch dec_edit ck (prun ops) b in
    (forall x, In x (p_acked (prun ops)) -> In x r) /\
    (forall x, In x r -> In x (p_issued (prun ops))) /\
    sorted_b r.
  Proof.
    intros Hc Hb. apply crash_safe. apply byte_image_is_image; [apply pinv_run|exact Hc|exact Hb].
  Qed.
End ImageProofs.
