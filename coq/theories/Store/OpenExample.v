(* Store/OpenExample.v — a small concrete storage image built with the model's own writers (manifest record
   encoder, batch encoder, journal writer with the real CRC-32C and the generated constants) that satisfies every
   hypothesis of the Open theorems (Store/OpenCrashProofs.v): the non-vacuity instance quoted by Props/C04.v.
   The state of the record-level model is the one of C04_crash_safe_bytes_nonvacuous: a synced batch of two
   records and an unsynced batch of one; the journal is cut 13 bytes into the second record and followed by
   zeros; the manifest holds its snapshot record; there are no tables. *)
From Coq Require Import List NArith ZArith Bool Lia.
From GL Require Import Base.Bytes Codec.BytesCmp Codec.BytesCmpProofs Codec.IKey Codec.Journal Codec.TblCrc
  Codec.Batch Codec.SessionRecord Codec.SessionRecordSpec Lsm.Lsm Lsm.History Lsm.ReadPath Lsm.ReadPathProofs
  Store.Crash Store.CrashProofs Store.CrashBytes Store.OpenPath Store.OpenJournalProofs Store.OpenPathProofs
  Store.OpenEndProofs Store.OpenCrashProofs Codec.JournalWriterProofs Gen.ConstsOk Gen.ConstsOkMem Gen.Inst
  Gen.InstTbl Gen.InstMem Gen.InstJournal Gen.InstJournalOk Gen.InstRecord Gen.InstRecordOk.
From GL Require Store.Sweep.
Import ListNotations.
Open Scope N_scope.

Definition ox_cname : bytes := [108; 101; 118].
Definition ox_opts (ro : bool) : oopts := mkOO false false true 4096%Z 67108864%Z ro false false ox_cname.
Definition ox_open := open_bytes jcrc jp rp kp 12 mp tblp tbl_crc (fun x => x) false None 4096 16 bytewise.
(* the manifest: one snapshot record *)
Definition ox_rec0 : srec := build rp (mkrf (Some ox_cname) (Some 1%Z) (Some 2%Z) (Some 0) [] [] []).
Definition ox_raw0 : bytes := match SessionRecord.encode rp ox_rec0 with Some b => b | None => [] end.
Definition ox_mrecs : list (srec * bytes) := [(ox_rec0, ox_raw0)].
(* the journal: two batches, the first synced *)
Definition ox_b1 : jbatch := (1, [[(1, [97], [1]); (0, [98], [])]]).
Definition ox_b2 : jbatch := (3, [[(1, [99], [7])]]).
Definition ox_jl : jdesc := mkJD 1 [ox_b1; ox_b2] 1.
Definition ox_jraws : list bytes := map (jb_enc kp) (jd_bs ox_jl).
Definition ox_jbytes : bytes := firstn 40 (jwrite jcrc jp [] ox_jraws) ++ repeat 0 10%nat.
Definition ox_img : simage :=
  mkSI (Some 0) [((Sweep.FManifest, 0), jwrite jcrc jp [] [ox_raw0]); ((Sweep.FJournal, 1), ox_jbytes)].
Definition ox_state : pstate := prun [PWrite 2 true; PWrite 1 false].
Definition ox_newb (t : atrec) : list Crash.batch := [].
Definition ox_cont (b : Crash.batch) : list brec := if b_seq b =? 1 then jb_recs ox_b1 else jb_recs ox_b2.

Ltac nle := apply N.leb_le; vm_compute; reflexivity.
Ltac nlt := apply N.ltb_lt; vm_compute; reflexivity.

Lemma ox_seek_val : keyTypeSeek kp <= keyTypeVal kp.
Proof. nle. Qed.

(* The writer of Codec/Journal.v copies through a 32 KiB buffer and is dear to run; what it writes is the rendering
   of the chunk layout (jwrite_layout), which is evaluated instead. *)
Lemma ox_crash_file_j : is_crash_file jcrc jp true ox_jraws 1 ox_jbytes.
Proof.
  exists [], 40%nat, (repeat 0 10%nat). unfold synced_len, crash_bytes, jbytes, raw_id, ox_jbytes.
  rewrite !map_id, !(jwrite_layout jcrc jp jp_ok).
  split; [apply Nat.leb_le; vm_compute; reflexivity|]. split; [reflexivity|vm_compute; reflexivity].
Qed.

Ltac recwf := split; [first [left; reflexivity | right; reflexivity] | repeat (constructor; [vm_compute; reflexivity|]); constructor].
Lemma ox_jb_ok : Forall (jb_ok kp) (jd_bs ox_jl).
Proof.
  constructor; [|constructor; [|constructor]].
  - split; [constructor; [recwf|constructor; [recwf|constructor]]|]. split; [nle|]. split; [nle|]. split; [nlt|nlt].
  - split; [constructor; [recwf|constructor]|]. split; [nle|]. split; [nle|]. split; [nlt|nlt].
Qed.

Lemma ox_image_ok : image_ok jcrc jp rp kp (ox_opts true) ox_img 0 ox_mrecs 1 (olist None ++ [ox_jl]).
Proof.
  split; [reflexivity|]. split.
  { exists (jwrite jcrc jp [] [ox_raw0]). split; [reflexivity|]. exact (whole_file_crash jcrc jp jp_ok true _ 1). }
  split; [constructor; [vm_compute; reflexivity|constructor]|]. split; [vm_compute; reflexivity|].
  constructor; [|constructor]. split; [exact ox_jb_ok|].
  exists ox_jbytes. split; [reflexivity|exact ox_crash_file_j].
Qed.

(* every admissible prefix of the manifest is all of it, and session.recover accepts that *)
Lemma ox_prefix k : (1 <= k)%nat -> firstn k (map fst ox_mrecs) = [ox_rec0].
Proof. destruct k as [|[|k]]; [lia|reflexivity|reflexivity]. Qed.

Lemma ox_replay ro : replay_result rp (oo_cmp_name (ox_opts ro)) [ox_rec0] = SpecOk 1 0 2 0 [] [].
Proof. vm_compute. reflexivity. Qed.

Lemma ox_manifest_ok : manifest_ok rp (ox_opts true) ox_mrecs 1.
Proof. intros k Hk. rewrite (ox_prefix k Hk). do 6 eexists. apply ox_replay. Qed.

Lemma nth_all_nil {A} (lv : list (list A)) : (forall l : nat, nth l lv [] = []) -> Forall (fun x => x = []) lv.
Proof.
  induction lv as [|x lv IH]; intros H; [constructor|]. constructor; [exact (H 0%nat)|].
  apply IH. intros l. exact (H (S l)).
Qed.

Lemma sort_levels_nil c (lv : list (list SessionRecord.atrec)) : Forall (fun x => x = []) lv ->
  forall fs, Forall (fun l => l = []) (levels_of fs (sort_levels c lv)).
Proof.
  intros H fs. unfold sort_levels, levels_of. generalize 0%nat.
  induction H as [|x lv -> H IH]; intros n; cbn [length seq combine map]; constructor.
  - destruct n; reflexivity.
  - apply IH.
Qed.

Lemma ox_tables_answer :
  tables_answer rp kp mp tblp tbl_crc 16 bytewise (fun _ => None) None (fun _ _ _ => true) true
    (ox_opts true) ox_img ox_mrecs 1 ox_newb ox_cont None ox_jl.
Proof.
  intros k j nf q live cps lv d0 Hk Espec Hlv Enew.
  rewrite (ox_prefix k Hk) in *. rewrite ox_replay in Espec. injection Espec as <- <- <- <- <-.
  assert (Hnil : Forall (fun x => x = []) lv) by (apply nth_all_nil; intros l; rewrite Hlv; reflexivity).
  pose proof (sort_levels_nil bytewise lv Hnil (si_files ox_img)) as Hl0.
  destruct (new_mem_ok kp ox_seek_val mp mp_ok bytewise) as (d0' & Enew' & Hm0 & He0).
  rewrite Enew in Enew'. injection Enew' as <-.
  cbv zeta. set (st0 := mkBS _ _ _).
  assert (Hkm : 0 <= keyMaxSeq kp) by lia.
  pose proof (fun key Wk => empty_state_answers bytewise bytewise_ok kp kp_ok ox_seek_val mp mp_ok tblp tbl_crc
                (fun _ => None) None (fun _ _ _ => true) true 16 d0 _ key 0 Hm0 He0 Hl0 Wk Hkm) as A.
  fold st0 in A. destruct (A [] (Forall_nil _)) as (W & Eall & _).
  split; [exact W|]. split; [rewrite Eall; intros a b []|]. split; [exact Hkm|].
  exists 0. split; [lia|]. split; [rewrite Eall; intros x []|]. split.
  - intros b [Hb|(jf & Ejf & _)]; [|discriminate]. destruct Hb as [<-|[<-|[]]]; intros _; nlt.
  - intros key Wk. destruct (A key Wk) as (_ & _ & ->). reflexivity.
Qed.

Lemma ox_journal_batches_ok : journal_batches_ok kp ox_cont None ox_jl.
Proof.
  intros b [Hb|(jf & Ejf & _)]; [|discriminate].
  destruct Hb as [<-|[<-|[]]]; (split; [reflexivity|nle]).
Qed.

Lemma ox_denotes : denotes rp ox_newb (fun x => x) ox_state ox_mrecs 1 None ox_jl.
Proof. split; [vm_compute; reflexivity|]. split; [vm_compute; exact I|]. split; vm_compute; reflexivity. Qed.

Lemma ox_end_to_end :
  exists r L,
    ox_open (ox_opts true) [] ox_img = OOk r /\
    wf_bstate bytewise kp mp tblp tbl_crc (fun _ => None) None (fun _ _ _ => true) true 16 (os_bs r) /\
    (forall b, In b (p_acked ox_state) -> In b L) /\ (forall b, In b L -> In b (p_issued ox_state)) /\ sorted_b L /\
    os_image r = ox_img /\
    forall key, wf_bytes key ->
      bapi (db_get_bytes bytewise kp mp tblp tbl_crc (fun _ => None) None (fun _ _ _ => true) true (os_bs r) key (os_seq r)) =
      Some (a_get bytewise key (cmap kp bytewise ox_cont [] L)).
Proof.
  apply (open_ro_end_to_end jcrc jp jp_ok rp rp_ok kp kp_ok ox_seek_val mp mp_ok tblp tbl_crc (fun x => x) false None 4096 16
           bytewise bytewise_ok (fun _ => None) None (fun _ _ _ => true) true
           (ox_opts true) [] ox_img 0 ox_mrecs 1 None ox_jl ox_newb ox_cont (fun x => x) ox_state);
    try reflexivity.
  - constructor.
  - exact ox_image_ok.
  - exact ox_manifest_ok.
  - constructor; [vm_compute; reflexivity|constructor].
  - split; [nle|exact I].
  - intros a b. reflexivity.
  - apply pinv_run.
  - exact ox_denotes.
  - exact ox_journal_batches_ok.
  - exact ox_tables_answer.
Qed.

(* the read-write Open of the same image: the parts of its result that the lemmas below state *)
Definition ox_rw_summary (r : ores ostate) :=
  match r with
  | OOk x => Some (os_seq x, os_kept x, layout_of x, os_journal x, si_meta (os_image x), os_removed x)
  | OErr _ => None
  end.
(* opening what the read-write Open left: same sequence number, same tables, nothing replayed, the same abstraction *)
Definition ox_r1 : ores ostate := ox_open (ox_opts false) [] ox_img.
Definition ox_img1 : simage := match ox_r1 with OOk r => os_image r | OErr _ => ox_img end.
Definition ox_r2 : ores ostate := ox_open (ox_opts false) [] ox_img1.
Definition ox_abs (r : ores ostate) : option lstate :=
  match r with
  | OOk x => Some (ReadPath.abs bytewise mp tblp tbl_crc (fun _ => None) None (fun _ _ _ => true) true 16 (os_bs x))
  | OErr _ => None
  end.

(* The image and each of the two runs are evaluated once, and so is the abstraction of each result; the lemmas below
   rewrite with these equations instead of evaluating again. *)
Definition ox_imgv : simage := Eval vm_compute in ox_img.
Lemma ox_img_eq : ox_img = ox_imgv.
Proof. unfold ox_img, ox_jbytes. rewrite !(jwrite_layout jcrc jp jp_ok). vm_compute. reflexivity. Qed.

Definition ox_v1 : ores ostate := Eval vm_compute in ox_r1.
Lemma ox_run1 : ox_open (ox_opts false) [] ox_img = ox_v1.
Proof. rewrite ox_img_eq. vm_compute. reflexivity. Qed.

Definition ox_v2 : ores ostate := Eval vm_compute in ox_r2.
Lemma ox_run2 : ox_r2 = ox_v2.
Proof. unfold ox_r2, ox_img1, ox_r1. rewrite ox_run1. vm_compute. reflexivity. Qed.

Definition ox_a1 : option lstate := Eval vm_compute in ox_abs ox_r1.
Lemma ox_abs1 : ox_abs ox_r1 = ox_a1.
Proof. unfold ox_r1. rewrite ox_run1. vm_compute. reflexivity. Qed.
Lemma ox_abs2 : ox_abs ox_r2 = ox_a1.
Proof. rewrite ox_run2. vm_compute. reflexivity. Qed.

Lemma ox_rw_opens :
  ox_rw_summary (ox_open (ox_opts false) [] ox_img) =
  Some (3, [(1, 2)], [[2]], Some 3, Some 4, [(Sweep.FManifest, 0); (Sweep.FJournal, 1)]).
Proof. rewrite ox_run1. reflexivity. Qed.

Lemma ox_rw_idempotent :
  ox_rw_summary ox_r2 = Some (3, [], [[2]], Some 5, Some 6, [(Sweep.FManifest, 4); (Sweep.FJournal, 3)]) /\
  ox_abs ox_r2 = ox_abs ox_r1 /\
  (* and the abstraction is not empty: the table holds the two entries of the kept batch *)
  option_map (fun st => length (all_entries st)) (ox_abs ox_r1) = Some 2%nat.
Proof. rewrite ox_abs2, ox_abs1, ox_run2. split; [reflexivity|]. split; reflexivity. Qed.

Lemma ox_image_ok_rw : image_ok jcrc jp rp kp (ox_opts false) ox_img 0 ox_mrecs 1 (olist None ++ [ox_jl]).
Proof. exact ox_image_ok. Qed.

(* the side condition of the totality theorem (Store/OpenTotalProofs.v) holds of the example image: two file names,
   listed once each; the manifest leaves journal number 1, next file number 2 and no table *)
From GL Require Import Store.OpenTotalProofs.
Lemma ox_image_tabs_ok : image_tabs_ok rp (ox_opts false) ox_img ox_mrecs 1.
Proof.
  split.
  { cbn [ox_img si_files map fst]. constructor; [intros [E|[]]; discriminate|]. constructor; [intros []|constructor]. }
  intros k j pj nf q live cps Hk.
  rewrite (ox_prefix k Hk), ox_replay. intros H. injection H as <- _ <- _ <- _.
  split; [discriminate|]. split; [discriminate|constructor].
Qed.

Lemma ox_rw_total :
  image_tabs_ok rp (ox_opts false) ox_img ox_mrecs 1 /\ manifest_ok rp (ox_opts false) ox_mrecs 1 /\
  jnums_ok None ox_jl /\
  exists r, ox_open (ox_opts false) [] ox_img = OOk r.
Proof.
  split; [exact ox_image_tabs_ok|]. split; [exact ox_manifest_ok|].
  assert (Hn : jnums_ok None ox_jl) by (split; [apply N.leb_le; reflexivity|exact I]).
  split; [exact Hn|].
  exact (open_rw_total_pinv jcrc jp jp_ok rp rp_ok kp kp_ok ox_seek_val mp mp_ok tblp tbl_crc (fun x => x) false None
           4096 16 bytewise bytewise_ok (ox_opts false) [] ox_img 0 ox_mrecs 1%nat None ox_jl
           eq_refl eq_refl eq_refl eq_refl (Forall_nil _) ox_image_ok_rw ox_manifest_ok Hn ox_image_tabs_ok).
Qed.
