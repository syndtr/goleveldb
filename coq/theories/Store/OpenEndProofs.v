(* Store/OpenEndProofs.v — what the DB that Open returns ANSWERS: the byte-level read path (Lsm/ReadPath.v) on
   the recovered state, composed with the journal replay (Store/OpenJournalProofs.v, Store/OpenPathProofs.v) and
   the record-level crash theorem (Store/CrashProofs.v).

   The buffer Open rebuilds holds the stamped records of the accepted journal batches, all newer than whatever the
   tables hold; a read therefore returns the tables' answer overlaid with the accepted batches in order
   (HistoryProofs.hist_recs, iterated over batches with gaps between their sequence numbers). *)
From Coq Require Import List NArith ZArith Bool Lia.
From GL Require Import Base.Bytes Base.Order Codec.IKey Codec.Batch Lsm.Lsm Lsm.LsmProofs Lsm.History
  Lsm.HistoryProofs Lsm.ReorgProofs Lsm.ReadPath Lsm.ReadPathKey Lsm.ReadPathMem Lsm.ReadPathProofs
  Lsm.BatchWriteProofs Store.OpenJournalProofs.
From GL Require Mem.MemDB.
Import ListNotations.
Open Scope N_scope.

Section OpenEnd.
  Variable c : comparer.
  Hypothesis ok : comparer_ok c.
  Variable p : kparams.
  Hypothesis pok : kparams_ok p.
  Hypothesis seek_val : keyTypeSeek p <= keyTypeVal p.
  Variable mp : MemDB.mparams.
  Hypothesis mpok : MemDB.mparams_ok mp.
  Variable tp : Table.tparams.
  Variable crc : bytes -> N.
  Variable decompress : bytes -> option bytes.
  Variable fname : option bytes.
  Variable ufc : bytes -> N -> bytes -> bool.
  Variable verify : bool.
  Variable ri : N.

  Local Notation wfb := (wf_bstate c p mp tp crc decompress fname ufc verify ri).
  Local Notation absS := (ReadPath.abs c mp tp crc decompress fname ufc verify ri).
  Local Notation getb := (db_get_bytes c p mp tp crc decompress fname ufc verify).
  Local Notation wmem := (with_mem).

  Local Notation jb_entries := (OpenJournalProofs.jb_entries p).
  Local Notation jb_ok := (OpenJournalProofs.jb_ok p).

  (* what the sequence rule accepts is a chain: every batch starts at or above the running number *)
  Fixpoint jchain (cur : N) (l : list jbatch) (e : N) : Prop :=
    match l with
    | [] => cur = e
    | b :: r => cur <= fst b /\ jchain (fst b + jb_n b) r e
    end.

  Lemma accepted_chain bs : forall cur, jchain cur (fst (accepted bs cur)) (snd (accepted bs cur)).
  Proof.
    induction bs as [|b r IH]; intros cur; cbn [accepted]; [reflexivity|].
    destruct (fst b <? cur) eqn:E; [apply IH|].
    specialize (IH (fst b + jb_n b)). destruct (accepted r (fst b + jb_n b)) as [a e]. cbn [fst snd jchain] in *.
    apply N.ltb_ge in E. split; assumption.
  Qed.

  Lemma accepted_in bs : forall cur b, In b (fst (accepted bs cur)) -> In b bs.
  Proof.
    induction bs as [|x r IH]; intros cur b; cbn [accepted]; [intros []|].
    destruct (fst x <? cur); [intros H; right; exact (IH _ _ H)|].
    specialize (IH (fst x + jb_n x) b). destruct (accepted r (fst x + jb_n x)) as [a e]. cbn [fst In] in *.
    intros [<-|H]; [left; reflexivity|right; exact (IH H)].
  Qed.

  Lemma jchain_le l : forall cur e, jchain cur l e -> cur <= e.
  Proof.
    induction l as [|b r IH]; intros cur e; cbn [jchain]; [intros ->; lia|].
    intros (H1 & H2). specialize (IH _ _ H2). lia.
  Qed.

  (* the plain map driven by a list of batches, in order *)
  Definition apply_batches (m : amap) (l : list jbatch) : amap :=
    fold_left (fun m b => fold_left (a_apply c p) (jb_recs b) m) l m.

  Lemma a_apply_norm m r : rec_wf p r -> a_apply c p m (norm_rec p r) = a_apply c p m r.
  Proof.
    destruct r as [[kd k] v]. intros ([Hk|Hk] & _); cbn [fst] in Hk; subst kd; cbn [norm_rec a_apply].
    - rewrite N.eqb_refl. reflexivity.
    - rewrite N.eqb_refl. reflexivity.
  Qed.

  Lemma fold_apply_norm recs : Forall (rec_wf p) recs -> forall m,
    fold_left (a_apply c p) (map (norm_rec p) recs) m = fold_left (a_apply c p) recs m.
  Proof.
    induction 1 as [|r t Hr Ht IH]; intros m; [reflexivity|].
    cbn [map fold_left]. rewrite (a_apply_norm m r Hr). apply IH.
  Qed.

  Lemma jchain_ge l : forall cur e, jchain cur l e -> forall b, In b l -> cur <= fst b.
  Proof.
    induction l as [|x r IH]; intros cur e H b Hb; [destruct Hb|].
    destruct H as (H1 & H2). destruct Hb as [<-|Hb]; [exact H1|].
    specialize (IH _ _ H2 b Hb). unfold jb_n in *. lia.
  Qed.

  (* reading a collection [old] overlaid with the entries of a chain of batches that are all newer than it: at any
     sequence number sr that is not below the collection and the chain *)
  Lemma newest_batches k : forall acc old s cur e m sr,
    Forall jb_ok acc -> jchain cur acc e -> (forall b, In b acc -> s < fst b) ->
    (forall x, In x old -> e_seq x <= s) ->
    History.res p (newest c k s old None) = a_get c k m ->
    s <= sr -> e <= sr + 1 ->
    History.res p (newest c k sr (old ++ flat_map jb_entries acc) None) = a_get c k (apply_batches m acc) /\
    (forall x, In x (old ++ flat_map jb_entries acc) -> e_seq x <= sr).
  Proof.
    induction acc as [|b r IH]; intros old s cur e m sr Hok Hch Hnew Hold Hm Hsr He.
    - cbn [flat_map apply_batches fold_left]. rewrite app_nil_r. split.
      + rewrite (newest_seq_irrelevant c k s sr old None Hold Hsr). exact Hm.
      + intros x Hx. specialize (Hold x Hx). lia.
    - inversion Hok as [|? ? Hb Hr]; subst. destruct Hch as (H1 & Hch).
      destruct Hb as (Hw & Hb1 & Hs & _ & _).
      pose proof (Hnew b (or_introl eq_refl)) as Hsb.
      cbn [flat_map]. rewrite app_assoc.
      assert (Hold' : forall x, In x old -> e_seq x <= fst b - 1) by (intros x Hx; specialize (Hold x Hx); lia).
      assert (Hm' : History.res p (newest c k (fst b - 1) old None) = a_get c k m).
      { rewrite (newest_seq_irrelevant c k s (fst b - 1) old None Hold) by lia. exact Hm. }
      pose proof (hist_recs c ok p k (map (norm_rec p) (jb_recs b)) (fst b - 1) old m Hold' Hm') as Hh.
      rewrite map_length in Hh. rewrite (fold_apply_norm _ Hw) in Hh.
      unfold OpenJournalProofs.jb_entries in *.
      assert (Es : fst b - 1 + N.of_nat (length (jb_recs b)) = fst b + jb_n b - 1) by (unfold jb_n; lia).
      rewrite Es in Hh.
      pose proof (jchain_le _ _ _ Hch) as Hle.
      apply (IH (old ++ stamp (fst b - 1) (map (norm_rec p) (jb_recs b))) (fst b + jb_n b - 1) (fst b + jb_n b) e
                (fold_left (a_apply c p) (jb_recs b) m) sr Hr Hch).
      + intros b' Hb'. pose proof (jchain_ge _ _ _ Hch b' Hb'). lia.
      + intros x Hx. apply in_app_or in Hx as [Hx|Hx]; [specialize (Hold' x Hx); lia|].
        apply stamp_seq in Hx as [_ Hx]. rewrite map_length in Hx. unfold jb_n. lia.
      + exact Hh.
      + lia.
      + exact He.
  Qed.

  Lemma jb_entries_range b x : In x (jb_entries b) -> 1 <= fst b -> fst b <= e_seq x /\ e_seq x < fst b + jb_n b.
  Proof.
    unfold OpenJournalProofs.jb_entries. intros Hx H1. apply stamp_seq in Hx as [A B].
    rewrite map_length in B. unfold jb_n. lia.
  Qed.

  Lemma chain_entries_range acc : forall cur e, Forall jb_ok acc -> jchain cur acc e ->
    forall x, In x (flat_map jb_entries acc) -> cur <= e_seq x /\ e_seq x < e.
  Proof.
    induction acc as [|b r IH]; intros cur e Hok Hch x Hx; [destruct Hx|].
    inversion Hok as [|? ? Hb Hr]; subst. destruct Hch as (H1 & Hch). destruct Hb as (_ & Hb1 & _).
    cbn [flat_map] in Hx. apply in_app_or in Hx as [Hx|Hx].
    - destruct (jb_entries_range b x Hx Hb1). pose proof (jchain_le _ _ _ Hch). lia.
    - destruct (IH _ _ Hr Hch x Hx). unfold jb_n in *. lia.
  Qed.

  Lemma chain_entries_uniq acc : forall cur e, Forall jb_ok acc -> jchain cur acc e ->
    forall a b, In a (flat_map jb_entries acc) -> In b (flat_map jb_entries acc) -> e_seq a = e_seq b -> a = b.
  Proof.
    induction acc as [|x r IH]; intros cur e Hok Hch a b Ha Hb E; [destruct Ha|].
    inversion Hok as [|? ? Hx Hr]; subst. destruct Hch as (H1 & Hch). destruct Hx as (_ & Hx1 & _).
    cbn [flat_map] in Ha, Hb. apply in_app_or in Ha. apply in_app_or in Hb.
    destruct Ha as [Ha|Ha], Hb as [Hb|Hb].
    - unfold OpenJournalProofs.jb_entries in Ha, Hb. exact (stamp_seq_inj _ _ a b Ha Hb E).
    - destruct (jb_entries_range x a Ha Hx1). destruct (chain_entries_range r _ _ Hr Hch b Hb). lia.
    - destruct (jb_entries_range x b Hb Hx1). destruct (chain_entries_range r _ _ Hr Hch a Ha). lia.
    - exact (IH _ _ Hr Hch a b Ha Hb E).
  Qed.

  (* st0: the tables Open found with an empty buffer; d': the buffer after the replay, holding the entries of the
     accepted batches.  s0: a sequence number that no stored entry exceeds (the recorded one) and below which
     every batch the sequence rule can accept starts; cur: the running number the replay starts from *)
  Theorem replayed_state_answers st0 d0 d' bs s0 cur k m :
    wfb st0 -> bs_mem st0 = Some d0 -> mem_entries mp (Some d0) = [] ->
    uniq_in (all_entries (absS st0)) ->
    (forall x, In x (all_entries (absS st0)) -> e_seq x <= s0) ->
    s0 <= cur -> (forall b, In b bs -> cur <= fst b -> s0 < fst b) ->
    Forall jb_ok bs -> snd (accepted bs cur) <= keyMaxSeq p ->
    mem_ok c p mp d' ->
    (forall x, In x (mem_entries mp (Some d')) <-> In x (flat_map jb_entries (fst (accepted bs cur)))) ->
    wf_bytes k ->
    bapi (getb st0 k s0) = Some (a_get c k m) ->
    wfb (wmem st0 d') /\
    bapi (getb (wmem st0 d') k (snd (accepted bs cur))) = Some (a_get c k (apply_batches m (fst (accepted bs cur)))).
  Proof.
    intros W Hd He0 Hu Hold Hsc Hgap Hbs Hmax Hm' Hin Wk Htab.
    set (acc := fst (accepted bs cur)) in *. set (e := snd (accepted bs cur)) in *.
    assert (Hch : jchain cur acc e) by apply accepted_chain.
    assert (Hacc : Forall jb_ok acc).
    { apply Forall_forall. intros b Hb. rewrite Forall_forall in Hbs. apply Hbs. exact (accepted_in bs cur b Hb). }
    assert (Hle : cur <= e) by exact (jchain_le _ _ _ Hch).
    assert (Hgap' : forall b, In b acc -> s0 < fst b).
    { intros b Hb. apply Hgap; [exact (accepted_in bs cur b Hb)|exact (jchain_ge _ _ _ Hch b Hb)]. }
    assert (Hnew : forall a, In a (flat_map jb_entries acc) -> s0 < e_seq a).
    { intros a Ha. apply in_flat_map in Ha as (b & Hb & Ha). specialize (Hgap' b Hb).
      assert (H1 : 1 <= fst b) by lia. destruct (jb_entries_range b a Ha H1). lia. }
    assert (Hin' : forall x, In x (mem_entries mp (Some d')) <-> In x (mem_entries mp (Some d0)) \/ In x (flat_map jb_entries acc)).
    { intros x. rewrite He0, Hin. cbn [In]. tauto. }
    destruct (write_wf_gen c ok p pok seek_val mp mpok tp crc decompress fname ufc verify ri st0 d0 d' _ s0 W Hd Hm' Hold Hnew Hin') as [W' SE].
    split; [exact W'|].
    rewrite (get_correct_bytes c ok p pok seek_val mp mpok tp crc decompress fname ufc verify ri k e Wk Hmax _ W').
    rewrite (get_correct_bytes c ok p pok seek_val mp mpok tp crc decompress fname ufc verify ri k s0 Wk ltac:(lia) _ W) in Htab.
    cbn [bapi] in *. f_equal. injection Htab as Htab.
    assert (Hu2 : uniq_in (all_entries (absS st0) ++ flat_map jb_entries acc)).
    { intros a b Ha Hb Euk Eseq. apply in_app_iff in Ha. apply in_app_iff in Hb.
      destruct Ha as [Ha|Ha], Hb as [Hb|Hb].
      - apply Hu; assumption.
      - specialize (Hold a Ha). specialize (Hnew b Hb). lia.
      - specialize (Hold b Hb). specialize (Hnew a Ha). lia.
      - exact (chain_entries_uniq acc _ _ Hacc Hch a b Ha Hb Eseq). }
    rewrite <- (newest_same_elems c ok k _ _ _ Hu2 SE).
    change (api_of (group_res p ?z)) with (History.res p z) in *.
    destruct (newest_batches k acc (all_entries (absS st0)) s0 cur e m e Hacc Hch Hgap' Hold Htab ltac:(lia) ltac:(lia)) as (G & _).
    exact G.
  Qed.

  (* a DB without tables: the case of the non-vacuity instance, Store/OpenExample.v *)
  Lemma chain_newer_empty (cs : list (list entry)) : Forall (fun x => x = []) cs -> chain_newer cs.
  Proof.
    induction 1 as [|x cs -> Hcs IH]; cbn [chain_newer]; [exact I|]. split; [|exact IH].
    apply Forall_forall. intros y _ a b [].
  Qed.

  Theorem empty_state_answers d0 lvls k s :
    mem_ok c p mp d0 -> mem_entries mp (Some d0) = [] -> Forall (fun l => l = []) lvls -> wf_bytes k -> s <= keyMaxSeq p ->
    wfb (mkBS (Some d0) None lvls) /\ all_entries (absS (mkBS (Some d0) None lvls)) = [] /\
    bapi (getb (mkBS (Some d0) None lvls) k s) = Some None.
  Proof.
    intros Hm He Hl Wk Hs.
    assert (Elv : map (map (abs_table c tp crc decompress fname ufc verify ri)) lvls = map (fun _ => []) lvls).
    { induction Hl as [|x l -> Hl IH]; [reflexivity|]. cbn [map]. f_equal. exact IH. }
    assert (Eall : all_entries (absS (mkBS (Some d0) None lvls)) = []).
    { unfold all_entries, all_tables. cbn [ReadPath.abs st_mem st_frozen st_aux st_levels bs_mem bs_frozen bs_levels].
      rewrite He, Elv. cbn [mem_entries app]. clear. induction lvls as [|x l IH]; [reflexivity|]. cbn [map concat app]. exact IH. }
    assert (W : wfb (mkBS (Some d0) None lvls)).
    { constructor; cbn [bs_mem bs_frozen bs_levels].
      - intros d E. injection E as <-. exact Hm.
      - intros d E. discriminate.
      - clear - Hl. induction Hl as [|x l -> Hl IH]; [constructor|constructor; [constructor|exact IH]].
      - constructor; cbn [ReadPath.abs st_mem st_frozen st_aux st_levels bs_mem bs_frozen bs_levels]; rewrite ?He, ?Elv.
        + split; [exact I|constructor].
        + split; [exact I|constructor].
        + split; [constructor|constructor].
        + destruct lvls; cbn [map hd]; split; constructor.
        + destruct lvls as [|x l]; cbn [map tl]; [constructor|]. clear. induction l as [|y l IH]; cbn [map]; constructor; [|exact IH].
          split; [constructor|]. exact I.
        + apply chain_newer_empty. unfold comps.
          cbn [ReadPath.abs st_mem st_frozen st_aux st_levels bs_mem bs_frozen bs_levels]. rewrite He, Elv.
          cbn [mem_entries level_entries map concat].
          repeat (constructor; [reflexivity|]). clear. induction lvls as [|y l IH]; cbn [map]; constructor; [reflexivity|exact IH]. }
    split; [exact W|]. split; [exact Eall|].
    rewrite (get_correct_bytes c ok p pok seek_val mp mpok tp crc decompress fname ufc verify ri k s Wk Hs _ W), Eall.
    reflexivity.
  Qed.
End OpenEnd.
