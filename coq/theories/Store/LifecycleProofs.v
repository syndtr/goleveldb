(* Store/LifecycleProofs.v — proofs about the lifecycle machine of Store/Lifecycle.v (property C18): global
   invariant (lock <-> exactly one open DB, per-DB invariants), lifted over arbitrary call sequences, and the
   C18 theorems. The per-call case analyses are in LifecycleLocal.v. *)
From Coq Require Import List NArith Bool Lia.
From GL Require Import Store.Lifecycle Store.LifecycleLocal.
Import ListNotations.
Open Scope nat_scope.

Definition isopen (db : dbrec) : bool := negb (is_closed (dmode db)).

Fixpoint nopen (l : list dbrec) : nat :=
  match l with
  | [] => 0
  | db :: l' => (if isopen db then 1 else 0) + nopen l'
  end.

Record wf (s : state) : Prop := {
  wf_db   : Forall db_ok (dbs s);
  wf_lock : nopen (dbs s) = if locked (stor s) then 1 else 0;   (* the lock is held iff exactly one DB is open *)
  wf_has  : dbs s <> [] -> hasdb (stor s) = true
}.

Lemma nopen_app : forall l db, nopen (l ++ [db]) = nopen l + (if isopen db then 1 else 0).
Proof. induction l as [|a l IH]; intros db; cbn; [lia|]. rewrite IH. lia. Qed.

Lemma nopen_upd : forall l d db db', nth_error l d = Some db ->
  nopen (upd l d db') + (if isopen db then 1 else 0) = nopen l + (if isopen db' then 1 else 0).
Proof.
  induction l as [|a l IH]; intros [|d] db db' H; cbn in *; try discriminate.
  - injection H as ->. lia.
  - specialize (IH _ _ db' H). lia.
Qed.

Lemma upd_not_nil : forall A (l : list A) d x, l <> [] -> upd l d x <> [].
Proof. intros A [|a l] [|d] x H; cbn; congruence. Qed.

Lemma nopen_zero_closed : forall l d db, nopen l = 0 -> nth_error l d = Some db -> dmode db = Closed.
Proof.
  induction l as [|a l IH]; intros [|d] db H E; cbn in *; try discriminate.
  - injection E as ->. unfold isopen in H. destruct (is_closed (dmode db)) eqn:C; cbn in H; [|lia].
    now apply is_closed_iff.
  - eapply IH; eauto. lia.
Qed.

Lemma nth_error_not_nil {A} (l : list A) d x : nth_error l d = Some x -> l <> [].
Proof. intros E Z. rewrite Z in E. destruct d; discriminate. Qed.

Lemma nopen_open_pos : forall l d db, nth_error l d = Some db -> isopen db = true -> 1 <= nopen l.
Proof.
  induction l as [|a l IH]; intros [|d] db E O; cbn in *; try discriminate.
  - injection E as ->. rewrite O. lia.
  - specialize (IH _ _ E O). lia.
Qed.

Lemma nopen_one_unique : forall l d1 d2 a b, nopen l = 1 ->
  nth_error l d1 = Some a -> isopen a = true -> nth_error l d2 = Some b -> isopen b = true -> d1 = d2.
Proof.
  induction l as [|x l IH]; intros [|d1] [|d2] a b H E1 O1 E2 O2; cbn in *; try discriminate; auto.
  - injection E1 as E1. subst x. rewrite O1 in H.
    assert (Z : nopen l = 0) by lia.
    pose proof (nopen_zero_closed _ _ _ Z E2) as C. unfold isopen in O2. rewrite C in O2. discriminate.
  - injection E2 as E2. subst x. rewrite O2 in H.
    assert (Z : nopen l = 0) by lia.
    pose proof (nopen_zero_closed _ _ _ Z E1) as C. unfold isopen in O1. rewrite C in O1. discriminate.
  - f_equal. destruct (isopen x).
    + pose proof (nopen_open_pos _ _ _ E1 O1). lia.
    + eapply IH; eauto.
Qed.

Lemma wf_init : forall has fs nf, wf (init_state has fs nf).
Proof. intros; constructor; cbn; [constructor | reflexivity | congruence]. Qed.

Lemma step_wf : forall s c, wf s -> wf (fst (step true s c)).
Proof.
  intros s c [Hdb Hlk Hhas]. destruct c as [ro seek | d h m | d]; cbn [step].
  - (* Open *)
    unfold open_step. destruct (locked (stor s)) eqn:L; cbn [fst]; [constructor; rewrite ?L; assumption|].
    destruct ro.
    + destruct (hasdb (stor s)) eqn:HD; cbn [fst]; [|constructor; rewrite ?L, ?HD; assumption].
      constructor; cbn.
      * apply Forall_app; split; [assumption|]. constructor; [|constructor].
        constructor; cbn; [reflexivity | intros; constructor].
      * rewrite nopen_app, Hlk. reflexivity.
      * intros _. exact HD.
    + constructor; cbn.
      * apply Forall_app; split; [assumption|]. constructor; [|constructor].
        constructor; cbn; [intros [E|E]; discriminate | intros E; congruence].
      * rewrite nopen_app, Hlk. reflexivity.
      * reflexivity.
  - (* API call *)
    destruct (nth_error (dbs s) d) as [db|] eqn:E; [|constructor; assumption].
    destruct (local_step true db h m) as [[db' ms] o] eqn:LS. cbn [fst].
    pose proof (Forall_nth_error _ _ _ _ _ Hdb E) as Ok0.
    pose proof (local_step_ok _ _ _ _ _ _ Ok0 LS) as Ok1.
    pose proof (local_step_mode _ _ _ _ _ _ LS) as MT.
    pose proof (nopen_upd _ _ _ db' E) as NU.
    constructor; cbn [stor dbs].
    + apply Forall_upd; assumption.
    + unfold isopen in *.
      destruct MT as [MT|[(M0 & M1 & _)|(M0 & M1 & _)]].
      * rewrite MT in *. rewrite andb_negb_l, locked_apply_muts. lia.
      * rewrite M0, M1 in *. cbn in *. rewrite locked_apply_muts. lia.
      * rewrite M1 in *. apply is_closed_false_iff in M0. rewrite M0 in *. cbn in *.
        destruct (locked (stor s)); lia.
    + intros _. pose proof (nth_error_not_nil _ _ _ E) as N.
      destruct (negb (is_closed (dmode db)) && is_closed (dmode db')); cbn; rewrite hasdb_apply_muts; auto.
  - (* drain *)
    destruct (nth_error (dbs s) d) as [db|] eqn:E; [|constructor; assumption].
    pose proof (Forall_nth_error _ _ _ _ _ Hdb E) as [Hbg Htx].
    unfold drain_db. destruct (dbg db) eqn:B; cbn [fst stor dbs].
    + constructor; cbn [stor dbs].
      * apply Forall_upd; [assumption|]. constructor; cbn; auto.
      * pose proof (nopen_upd _ _ _ (bump (set_bg db false)) E) as NU. unfold isopen in *. cbn in NU.
        rewrite locked_apply_muts. lia.
      * intros _. rewrite hasdb_apply_muts. apply Hhas, (nth_error_not_nil _ _ _ E).
    + rewrite (upd_id _ _ _ _ E). constructor; assumption.
Qed.

Lemma run_wf : forall l s, wf s -> wf (run true s l).
Proof. induction l as [|c l IH]; intros s H; cbn; [assumption|]. apply IH. now apply step_wf. Qed.

(* states reachable from any initial storage content by any call sequence, in the machine of code variant [parks];
   [reachable]: the repaired code (parks = true) *)
Definition reachable_of (parks : bool) (s : state) : Prop := exists has fs nf l, s = run parks (init_state has fs nf) l.
Definition reachable (s : state) : Prop := reachable_of true s.

Lemma reachable_wf : forall s, reachable s -> wf s.
Proof. intros s (has & fs & nf & l & ->). apply run_wf, wf_init. Qed.

Lemma reachable_step : forall s c, reachable s -> reachable (fst (step true s c)).
Proof.
  intros s c (has & fs & nf & l & ->). exists has, fs, nf, (l ++ [c]).
  generalize (init_state has fs nf). induction l as [|x l IH]; intros s0; cbn; [reflexivity|]. apply IH.
Qed.

Lemma reachable_run : forall l s, reachable s -> reachable (run true s l).
Proof. induction l as [|c l IH]; intros s H; cbn; [assumption|]. apply IH. now apply reachable_step. Qed.

Lemma wf_open_locked : forall s d db, wf s -> nth_error (dbs s) d = Some db -> dmode db <> Closed ->
  locked (stor s) = true /\ nopen (dbs s) = 1.
Proof.
  intros s d db [_ Hlk _] E M.
  assert (O : isopen db = true) by (unfold isopen; apply is_closed_false_iff in M; now rewrite M).
  pose proof (nopen_open_pos _ _ _ E O). destruct (locked (stor s)); [split; [reflexivity|assumption]|lia].
Qed.

Lemma wf_others_closed : forall s d db d' db', wf s -> nth_error (dbs s) d = Some db -> dmode db <> Closed ->
  d' <> d -> nth_error (dbs s) d' = Some db' -> dmode db' = Closed.
Proof.
  intros s d db d' db' W E M N E'.
  destruct (wf_open_locked _ _ _ W E M) as [_ One].
  destruct (is_closed (dmode db')) eqn:C; [now apply is_closed_iff|].
  exfalso. apply N. eapply (nopen_one_unique _ d' d db' db One); eauto; unfold isopen.
  - now rewrite C.
  - apply is_closed_false_iff in M. now rewrite M.
Qed.

Lemma step_api_eq : forall s d h m db db' ms o,
  nth_error (dbs s) d = Some db -> local_step true db h m = (db', ms, o) ->
  step true s (CApi d h m) =
    (mkState (if negb (is_closed (dmode db)) && is_closed (dmode db') then set_locked (apply_muts (stor s) ms) false
              else apply_muts (stor s) ms) (upd (dbs s) d db'), o).
Proof. intros s d h m db db' ms o E L. cbn [step]. rewrite E, L. reflexivity. Qed.

Lemma state_eta : forall s, mkState (stor s) (dbs s) = s.
Proof. intros [a b]; reflexivity. Qed.

Lemma single_owner_locked : forall s d db ro seek,
  reachable s -> nth_error (dbs s) d = Some db -> dmode db <> Closed ->
  step true s (COpen ro seek) = (s, ErrLocked).
Proof.
  intros s d db ro seek R E M. destruct (wf_open_locked _ _ _ (reachable_wf _ R) E M) as [L _].
  cbn [step]. unfold open_step. now rewrite L.
Qed.

Lemma single_owner_unique : forall s d1 d2 a b,
  reachable s -> nth_error (dbs s) d1 = Some a -> dmode a <> Closed ->
  nth_error (dbs s) d2 = Some b -> dmode b <> Closed -> d1 = d2.
Proof.
  intros s d1 d2 a b R E1 M1 E2 M2.
  destruct (PeanoNat.Nat.eq_dec d1 d2) as [|N]; [assumption|].
  pose proof (wf_others_closed _ _ _ _ _ (reachable_wf _ R) E2 M2 N E1). contradiction.
Qed.

Lemma close_releases : forall s d db h,
  reachable s -> nth_error (dbs s) d = Some db -> dmode db <> Closed ->
  let s' := fst (step true s (CApi d h DbClose)) in
  snd (step true s (CApi d h DbClose)) = Ok /\ locked (stor s') = false /\
  (exists db', nth_error (dbs s') d = Some db' /\ dmode db' = Closed) /\
  forall ro seek, snd (step true s' (COpen ro seek)) = Ok /\
                  length (dbs (fst (step true s' (COpen ro seek)))) = S (length (dbs s')).
Proof.
  intros s d db h R E M s'.
  pose proof (reachable_wf _ R) as W.
  assert (W' : wf s') by (apply step_wf; assumption).
  assert (LS : exists ms db', local_step true db h DbClose = (db', ms, Ok) /\ dmode db' = Closed).
  { unfold local_step; cbn. unfold db_step. destruct (dmode db) eqn:MD; try congruence; cbn.
    - rewrite andb_false_r. eexists _, _; split; reflexivity.
    - eexists _, _; split; reflexivity.
    - eexists _, _; split; reflexivity. }
  destruct LS as (ms & db' & LS & MC).
  subst s'. rewrite (step_api_eq _ _ _ _ _ _ _ _ E LS) in *. cbn [fst snd stor dbs] in *.
  apply is_closed_false_iff in M. rewrite M, MC in *. cbn in *.
  pose proof (wf_has _ W (nth_error_not_nil _ _ _ E)) as HD.
  repeat split.
  - exists db'. split; [eapply nth_error_upd_same; eauto|assumption].
  - unfold open_step; cbn. rewrite hasdb_apply_muts, HD. destruct ro; reflexivity.
  - unfold open_step; cbn. rewrite hasdb_apply_muts, HD. destruct ro; cbn; rewrite app_length; cbn; lia.
Qed.

Lemma closed_is_closed : forall s d db h m,
  reachable s -> nth_error (dbs s) d = Some db -> dmode db = Closed ->
  let s' := fst (step true s (CApi d h m)) in
  snd (step true s (CApi d h m)) = closed_outcome db h m /\
  stor s' = stor s /\
  (exists db', nth_error (dbs s') d = Some db' /\ dmode db' = Closed /\ dbg db' = false) /\
  (forall d', d' <> d -> nth_error (dbs s') d' = nth_error (dbs s) d') /\
  (recv m = RDb -> m <> DbNewIterator -> s' = s).
Proof.
  intros s d db h m R E M s'.
  pose proof (reachable_wf _ R) as W.
  pose proof (Forall_nth_error _ _ _ _ _ (wf_db _ W) E) as Ok0.
  destruct (local_step true db h m) as [[db' ms] o] eqn:LS.
  destruct (local_closed _ _ _ _ _ _ Ok0 M LS) as (-> & -> & MC & BG & _ & Same).
  subst s'. rewrite (step_api_eq _ _ _ _ _ _ _ _ E LS). cbn [fst snd stor dbs].
  rewrite M. cbn. repeat split.
  - exists db'. split; [eapply nth_error_upd_same; eauto|]. split; [assumption|].
    rewrite BG. apply (ok_bg _ Ok0). now right.
  - intros d' N. apply nth_error_upd_other. congruence.
  - intros RD NI. rewrite (Same RD NI), (upd_id _ _ _ _ E). apply state_eta.
Qed.

Lemma double_close_harmless : forall s d db h,
  nth_error (dbs s) d = Some db -> dmode db = Closed -> step true s (CApi d h DbClose) = (s, ErrClosed).
Proof.
  intros s d db h E M. cbn [step]. rewrite E. unfold local_step; cbn. unfold db_step. rewrite M. cbn.
  rewrite (upd_id _ _ _ _ E). now rewrite state_eta.
Qed.

Lemma ro_rejects_writes_serves_reads : forall s d db h m,
  reachable s -> nth_error (dbs s) d = Some db -> is_ro (dmode db) = true ->
  let s' := fst (step true s (CApi d h m)) in
  let o := snd (step true s (CApi d h m)) in
  (recv m = RDb -> takes_write_lock m = true -> o = ErrReadOnly /\ s' = s) /\
  (recv m = RDb -> db_read m = true -> o = Ok /\ stor s' = stor s) /\
  (m <> DbClose -> m <> ItRelease -> stor s' = stor s) /\
  (dmode db = ROpened -> mlog (stor s') = mlog (stor s)).
Proof.
  intros s d db h m R E M s' o.
  pose proof (reachable_wf _ R) as W.
  pose proof (Forall_nth_error _ _ _ _ _ (wf_db _ W) E) as Ok0.
  destruct (local_step true db h m) as [[db' ms] o'] eqn:LS.
  destruct (local_ro _ _ _ _ _ _ Ok0 M LS) as (Wr & Rd & Cl & Ms).
  pose proof (local_step_mode _ _ _ _ _ _ LS) as MT.
  subst s' o. rewrite (step_api_eq _ _ _ _ _ _ _ _ E LS). cbn [fst snd stor dbs].
  assert (NC : is_closed (dmode db) = false) by (destruct (dmode db); cbn in *; congruence).
  repeat split.
  - destruct (Wr H H0) as (_ & _ & ->). reflexivity.
  - destruct (Wr H H0) as (-> & -> & _). rewrite NC. cbn. rewrite (upd_id _ _ _ _ E). apply state_eta.
  - destruct (Rd H H0) as (_ & -> & _). reflexivity.
  - destruct (Rd H H0) as (-> & _ & MD). rewrite MD, NC. reflexivity.
  - intros NCl NRel. destruct Ms as [->|([->| ->] & _)]; [|congruence|congruence].
    destruct MT as [MT|[(M0 & _)|(_ & _ & ->)]]; [| rewrite M0 in M; discriminate | congruence].
    rewrite MT, NC. reflexivity.
  - intros RO. destruct Ms as [->|(_ & SW)]; [|congruence].
    destruct (negb (is_closed (dmode db)) && is_closed (dmode db')); reflexivity.
Qed.

Definition quiet (s : state) : Prop := Forall (fun db => quietb db = true) (dbs s).

Definition no_rw_open (c : call) : bool := match c with COpen false _ => false | _ => true end.

Lemma step_quiet : forall s c, wf s -> quiet s -> no_rw_open c = true ->
  mlog (stor (fst (step true s c))) = mlog (stor s) /\ quiet (fst (step true s c)).
Proof.
  intros s c W Q NR. destruct c as [ro seek | d h m | d]; cbn [step].
  - destruct ro; [|discriminate]. unfold open_step.
    destruct (locked (stor s)); [split; [reflexivity|assumption]|].
    destruct (hasdb (stor s)); cbn [fst]; [|split; [reflexivity|assumption]].
    split; [reflexivity|]. unfold quiet; cbn. apply Forall_app; split; [assumption|].
    constructor; [reflexivity|constructor].
  - destruct (nth_error (dbs s) d) as [db|] eqn:E; [|split; [reflexivity|assumption]].
    destruct (local_step true db h m) as [[db' ms] o] eqn:LS. cbn [fst].
    pose proof (Forall_nth_error _ _ _ _ _ (wf_db _ W) E) as Ok0.
    pose proof (Forall_nth_error _ _ _ _ _ Q E) as Q0. cbn in Q0.
    destruct (local_quiet _ _ _ _ _ _ Ok0 Q0 LS) as [-> Q1]. cbn [stor dbs]. split.
    + destruct (negb (is_closed (dmode db)) && is_closed (dmode db')); reflexivity.
    + unfold quiet; cbn. apply Forall_upd; assumption.
  - destruct (nth_error (dbs s) d) as [db|] eqn:E; [|split; [reflexivity|assumption]].
    pose proof (Forall_nth_error _ _ _ _ _ (wf_db _ W) E) as Ok0.
    pose proof (Forall_nth_error _ _ _ _ _ Q E) as Q0. cbn in Q0.
    rewrite (drain_quiet _ Ok0 Q0). cbn. rewrite (upd_id _ _ _ _ E). split; [reflexivity|assumption].
Qed.

Lemma run_quiet : forall l s, wf s -> quiet s -> forallb no_rw_open l = true ->
  mlog (stor (run true s l)) = mlog (stor s).
Proof.
  induction l as [|c l IH]; intros s W Q NR; cbn; [reflexivity|].
  cbn in NR. apply andb_true_iff in NR. destruct NR as [N1 N2].
  destruct (step_quiet _ _ W Q N1) as [M Q'].
  rewrite IH; auto. now apply step_wf.
Qed.

Lemma unlocked_quiet : forall s, wf s -> locked (stor s) = false -> quiet s.
Proof.
  intros s W L. unfold quiet. apply Forall_forall. intros db I.
  destruct (In_nth_error _ _ I) as [d E].
  pose proof (wf_lock _ W) as N. rewrite L in N.
  unfold quietb. now rewrite (nopen_zero_closed _ _ _ N E).
Qed.

(* opening read-only and anything done afterwards without re-opening read-write issues no mutation at all *)
Lemma ro_open_pure : forall s seek l,
  reachable s -> locked (stor s) = false -> forallb no_rw_open l = true ->
  mlog (stor (run true s (COpen true seek :: l))) = mlog (stor s).
Proof.
  intros s seek l R L NR. pose proof (reachable_wf _ R) as W.
  apply (run_quiet (COpen true seek :: l) s W (unlocked_quiet _ W L)). exact NR.
Qed.

(* every real iterator of the DB has been released *)
Definition iters_released (db : dbrec) : bool :=
  forallb (fun i => match ik i with IEmpty => true | IReal _ => irel i end) (diters db).

Lemma iters_released_pins : forall db v, iters_released db = true -> forallb (pins_current v) (diters db) = true.
Proof.
  intros db v H. unfold iters_released in H. rewrite forallb_forall in *. intros i I. specialize (H i I).
  unfold pins_current. destruct (ik i); [now rewrite H|reflexivity].
Qed.

(* a DB switched to read-only, whatever its seek-compaction option: once the iterators obtained before have been
   released and the background work has drained, nothing done afterwards (short of re-opening read-write)
   issues a mutation *)
Lemma ro_quiesces : forall s d db l,
  reachable s -> nth_error (dbs s) d = Some db -> dmode db = RSwitched ->
  iters_released db = true ->
  forallb no_rw_open l = true ->
  let s1 := fst (step true s (CDrain d)) in
  mlog (stor (run true s1 l)) = mlog (stor s1).
Proof.
  intros s d db l R E M IR NR s1.
  pose proof (reachable_wf _ R) as W.
  assert (W1 : wf s1) by (apply step_wf; assumption).
  apply run_quiet; [assumption| |assumption].
  subst s1. cbn [step]. rewrite E. unfold drain_db.
  assert (NCl : dmode db <> Closed) by congruence.
  assert (Oth : forall d' db', d' <> d -> nth_error (dbs s) d' = Some db' -> quietb db' = true).
  { intros d' db' N E'. unfold quietb. now rewrite (wf_others_closed _ _ _ _ _ W E NCl N E'). }
  unfold quiet. apply Forall_forall. intros x I. destruct (In_nth_error _ _ I) as [d' E']. clear I.
  destruct (dbg db) eqn:B; cbn [fst dbs] in E'.
  - destruct (PeanoNat.Nat.eq_dec d' d) as [->|N].
    + rewrite (nth_error_upd_same _ _ _ _ _ E) in E'. injection E' as <-.
      unfold quietb; cbn. rewrite M. cbn. apply iters_released_pins. exact IR.
    + rewrite nth_error_upd_other in E' by congruence. eauto.
  - rewrite (upd_id _ _ _ _ E) in E'.
    destruct (PeanoNat.Nat.eq_dec d' d) as [->|N]; [|eauto].
    rewrite E in E'. injection E' as <-. unfold quietb. rewrite M, B. cbn.
    apply iters_released_pins. exact IR.
Qed.

Lemma released_snapshot_reports : forall s d db h m,
  nth_error (dbs s) d = Some db -> nth_error (dsnaps db) h = Some true ->
  m = SnGet \/ m = SnHas \/ m = SnNewIterator ->
  snd (step true s (CApi d h m)) = ErrSnapshotReleased /\ stor (fst (step true s (CApi d h m))) = stor s.
Proof.
  intros s d db h m E H Hm.
  destruct (local_snap_released db h m H Hm) as (db' & LS & MD & _).
  rewrite (step_api_eq _ _ _ _ _ _ _ _ E LS). cbn [fst snd stor]. rewrite MD.
  destruct (is_closed (dmode db)); cbn; auto.
Qed.

Lemma released_iterator_reports : forall s d db h i m,
  nth_error (dbs s) d = Some db -> nth_error (diters db) h = Some i ->
  irel i = true -> ierr i = Ok -> it_move m = true ->
  let s' := fst (step true s (CApi d h m)) in
  snd (step true s (CApi d h m)) = ErrIterReleased /\ stor s' = stor s /\
  (* and the error sticks: Error(), Valid(), Key(), Value() and every later movement report it *)
  forall m', it_move m' = true \/ m' = ItValid \/ m' = ItError \/ m' = ItKey \/ m' = ItValue ->
    step true s' (CApi d h m') = (s', ErrIterReleased).
Proof.
  intros s d db h i m E H R Er Mv s'.
  pose proof (local_iter_released db h i m H R Er Mv) as LS.
  subst s'. rewrite (step_api_eq _ _ _ _ _ _ _ _ E LS). cbn [fst snd stor dbs].
  cbn [dmode set_iters]. rewrite andb_negb_l, apply_muts_nil. repeat split.
  intros m' Hm'.
  set (i' := mkIter (ik i) true ErrIterReleased (ihasr i) (iver i)).
  set (db' := set_iters db (upd (diters db) h i')).
  assert (E' : nth_error (upd (dbs s) d db') d = Some db') by (eapply nth_error_upd_same; eauto).
  assert (H' : nth_error (diters db') h = Some i') by (cbn; eapply nth_error_upd_same; eauto).
  assert (NE : ierr i' <> Ok) by (cbn; discriminate).
  pose proof (local_iter_sticky db' h i' m' H' NE Hm') as LS'.
  erewrite step_api_eq by (cbn [dbs]; eauto). cbn [stor dbs].
  rewrite andb_negb_l, apply_muts_nil. cbn [ierr i'].
  f_equal. f_equal. apply upd_id. exact E'.
Qed.

Lemma released_iterator_setreleaser_panics : forall s d db h i b,
  nth_error (dbs s) d = Some db -> nth_error (diters db) h = Some i -> irel i = true ->
  step true s (CApi d h (ItSetReleaser b)) = (s, Panics).
Proof.
  intros s d db h i b E H R.
  rewrite (step_api_eq _ _ _ _ _ _ _ _ E (local_iter_setreleaser_released db h i b H R)).
  rewrite andb_negb_l, apply_muts_nil, (upd_id _ _ _ _ E), state_eta. reflexivity.
Qed.

Lemma finished_transaction_reports : forall s d db h t m,
  nth_error (dbs s) d = Some db -> nth_error (dtxns db) h = Some t -> tdone t = true -> recv m = RTxn ->
  snd (step true s (CApi d h m)) =
    match m with
    | TrWrite true | TrDiscard => Ok
    | TrCommit => if is_closed (dmode db) then ErrClosed else ErrTransactionDone
    | _ => ErrTransactionDone
    end /\ stor (fst (step true s (CApi d h m))) = stor s.
Proof.
  intros s d db h t m E H D Rc.
  destruct (local_txn_done db h t m H D Rc) as (db' & LS & MD & _).
  rewrite (step_api_eq _ _ _ _ _ _ _ _ E LS). cbn [fst snd stor]. rewrite MD.
  destruct (is_closed (dmode db)); cbn; auto.
Qed.

(* Close finishes every transaction of the DB (db.go Close: db.tr.Discard()) *)
Lemma closed_db_transactions_done : forall s d db h t,
  reachable s -> nth_error (dbs s) d = Some db -> dmode db <> RW -> nth_error (dtxns db) h = Some t -> tdone t = true.
Proof.
  intros s d db h t R E M H.
  pose proof (Forall_nth_error _ _ _ _ _ (wf_db _ (reachable_wf _ R)) E) as Ok0.
  eapply all_done_nth; [apply (ok_txn _ Ok0 M)|eassumption].
Qed.

Lemma closed_db_methods_return_ErrClosed : forall db h m, recv m = RDb -> closed_outcome db h m = ErrClosed.
Proof. intros db h m R. unfold closed_outcome. now rewrite R. Qed.

(* the code BEFORE the repair (parks = false) did not quiesce: witness = create, write, SetReadOnly, drain, then
   a Get followed by a drain -- the Get schedules a seek compaction which the still-running table-compaction
   goroutine executes *)
Lemma ro_quiesces_refuted_before_repair :
  exists s d db l,
    reachable_of false s /\ nth_error (dbs s) d = Some db /\ dmode db = RSwitched /\ iters_released db = true /\
    forallb no_rw_open l = true /\
    let s1 := fst (step false s (CDrain d)) in
    mlog (stor (run false s1 l)) <> mlog (stor s1).
Proof.
  exists (run false (init_state false [] 1%N) [COpen false true; CApi 0 0 DbPut; CApi 0 0 DbSetReadOnly]), 0.
  eexists. exists [CApi 0 0 DbGet; CDrain 0].
  split; [eexists _, _, _, _; reflexivity|].
  split; [vm_compute; reflexivity|].
  split; [reflexivity|]. split; [reflexivity|]. split; [reflexivity|].
  vm_compute. discriminate.
Qed.

(* the same calls on the repaired code leave the mutation log alone (instance of ro_quiesces, by computation) *)
Lemma ro_quiesces_same_calls_repaired :
  let s := run true (init_state false [] 1%N) [COpen false true; CApi 0 0 DbPut; CApi 0 0 DbSetReadOnly] in
  let s1 := fst (step true s (CDrain 0)) in
  mlog (stor (run true s1 [CApi 0 0 DbGet; CDrain 0])) = mlog (stor s1).
Proof. vm_compute. reflexivity. Qed.
