(* Store/OpenRwProofs.v — for the totality of read-write Open (Store/OpenPath.v open_rw, Store/OpenTotalProofs.v):
   the table writer model accepts the pairs of every buffer that satisfies C14's invariant, so session.flushMemdb
   never fails with "keys are not in increasing order" (OEFlush is unreachable from such a buffer).  What is used of
   Codec/Table.v's writer: Append fails only on a key that is not above the previous one, and every successful
   Append leaves its key as the previous one. *)
From Coq Require Import List NArith ZArith Bool Lia.
From GL Require Import Base.Bytes Base.Order Base.Cursor Codec.IKey Codec.Block Codec.Table Lsm.ReadPath
  Lsm.ReadPathMem Lsm.WritePathTable Store.OpenPath.
From GL Require Mem.MemDB.
Import ListNotations.
Open Scope N_scope.

Section WriterTotal.
  Variable tp : tparams.
  Variable crc : bytes -> N.
  Variable compress : bytes -> bytes.
  Variable c : comparer.
  Variable blockSize ri : N.
  Variable snappy : bool.
  Variable fgen : option (bytes * (list (N * list bytes) -> bytes)).

  Local Notation app1 := (tw_append tp crc compress c blockSize ri snappy).
  Local Notation appall := (tw_append_all tp crc compress c blockSize ri snappy).

  Lemma tw_append_prev w k v w' : app1 w k v = Some w' -> bw_prev (tw_data w') = k /\ tw_n w' = tw_n w + 1.
  Proof.
    unfold tw_append. destruct ((0 <? tw_n w) && _); [discriminate|].
    intros E. injection E as <-. cbn [tw_data tw_n].
    destruct (blockSize <=? _); cbn [tw_data tw_n tw_finish_block]; unfold tw_flush_pending;
      destruct (bh_len (tw_pending w) =? 0); cbn [tw_data tw_n bw_append bw_prev bw_reset];
      try (destruct (write_block _ _ _ _ _ _)); cbn [tw_data tw_n bw_reset bw_prev]; split; reflexivity.
  Qed.

  Lemma tw_append_ok w k v : tw_n w = 0 \/ cmp c (bw_prev (tw_data w)) k = Lt -> exists w', app1 w k v = Some w'.
  Proof.
    intros H. unfold tw_append.
    assert (E : (0 <? tw_n w) && negb (match cmp c (bw_prev (tw_data w)) k with Lt => true | _ => false end) = false).
    { destruct H as [H|H]; [rewrite H; reflexivity|rewrite H; apply andb_false_r]. }
    rewrite E. eexists. reflexivity.
  Qed.

  Lemma tw_append_all_total kvs : forall w,
    match kvs with [] => True | kv :: _ => tw_n w = 0 \/ cmp c (bw_prev (tw_data w)) (fst kv) = Lt end ->
    sorted c kvs -> exists w', appall w kvs = Some w'.
  Proof.
    induction kvs as [|[k v] r IH]; intros w H Hs; [exists w; reflexivity|].
    cbn [tw_append_all fst] in *. destruct (tw_append_ok w k v H) as (w1 & E1). rewrite E1.
    destruct (tw_append_prev w k v w1 E1) as (Ep & En).
    apply IH.
    - destruct r as [|[k' v'] r']; [exact I|]. right. cbn [fst]. rewrite Ep. cbn [sorted sorted_from] in Hs. exact (proj1 Hs).
    - destruct r as [|[k' v'] r']; [exact I|]. cbn [sorted sorted_from] in Hs |- *. exact (proj2 Hs).
  Qed.

  Theorem twrite_total kvs : sorted c kvs -> exists file, twrite tp crc compress c blockSize ri snappy fgen kvs = Some file.
  Proof.
    intros Hs. unfold twrite.
    destruct (tw_append_all_total kvs (tw_empty) (match kvs with [] => I | _ :: _ => or_introl eq_refl end) Hs) as (w & E).
    rewrite E. eexists. reflexivity.
  Qed.
End WriterTotal.

Section FlushTotal.
  Variable rp : SR.rparams.
  Variable kp : kparams.
  Hypothesis seek_val : keyTypeSeek kp <= keyTypeVal kp.
  Variable mp : MemDB.mparams.
  Hypothesis mpok : MemDB.mparams_ok mp.
  Variable tp : tparams.
  Variable tcrc : bytes -> N.
  Variable compress : bytes -> bytes.
  Variable snappy : bool.
  Variable fgen : option (bytes * (list (N * list bytes) -> bytes)).
  Variable blockSize ri : N.
  Variable c : comparer.

  (* session.flushMemdb on a buffer that satisfies C14's invariant always produces a table *)
  Theorem flush_memdb_total st : mem_ok c kp mp (r_mdb st) ->
    exists st', flush_memdb rp kp mp tp tcrc compress snappy fgen blockSize ri c st = OOk st'.
  Proof.
    intros [(A & L & I) _]. unfold flush_memdb.
    pose proof (mem_pairs_sorted c kp seek_val mp mpok (r_mdb st) A L I) as Hs.
    apply (sorted_cmp_ext (ibc c) (iwc kp c)) in Hs; [|intros a b; reflexivity].
    destruct (twrite_total tp tcrc compress (iwc kp c) blockSize ri snappy fgen (mem_pairs mp (r_mdb st)) Hs) as (file & E).
    rewrite E. eexists. reflexivity.
  Qed.
End FlushTotal.
