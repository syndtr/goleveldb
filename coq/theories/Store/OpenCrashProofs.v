(* Store/OpenCrashProofs.v — Open (Store/OpenPath.v) against the record-level crash model (Store/Crash.v): what
   Open keeps of a crash image is what the model's recover returns for the record-level image the bytes denote.

   File NUMBERS.  The record-level model numbers its journals 1, 2, 3, …; the implementation takes journal numbers
   from the counter it shares with tables and manifests.  recover looks at numbers only to compare the manifest's
   journal number with a journal's, so any order embedding f of the real numbers into the model's relates the two
   (image_map, recover_full_image_map). *)
From Coq Require Import List NArith ZArith Bool Lia.
From GL Require Import Base.Bytes Base.Order Codec.IKey Codec.Journal Codec.JournalSpec Codec.Batch
  Codec.SessionRecordSpec Lsm.Lsm Lsm.History Lsm.ReadPath Lsm.ReadPathMem Lsm.BatchWriteProofs Store.Crash
  Store.CrashProofs Store.ManifestReplayProofs Store.OpenPath Store.OpenJournalProofs Store.OpenPathProofs.
From GL Require Mem.ListLemmas.
From GL Require Mem.MemDB.
Import ListNotations.
Open Scope N_scope.

Definition jfile_map (f : N -> N) (j : jfile) : jfile :=
  {| j_num := f (j_num j); j_recs := j_recs j; j_synced := j_synced j |}.
Definition medit_map (f : N -> N) (e : medit) : medit :=
  {| m_jnum := option_map f (m_jnum e); m_seq := m_seq e; m_tab := m_tab e |}.
Definition image_map (f : N -> N) (img : image) : image :=
  {| i_live := jfile_map f (i_live img); i_frozen := option_map (jfile_map f) (i_frozen img);
     i_man := map (medit_map f) (i_man img) |}.

Definition order_embedding (f : N -> N) : Prop := forall a b, (f a <=? f b) = (a <=? b).

Lemma replay_man_map f es : forall jn sq tabs,
  replay_man (map (medit_map f) es) (f jn) sq tabs =
  (let '(a, b, t) := replay_man es jn sq tabs in (f a, b, t)).
Proof.
  induction es as [|e es IH]; intros jn sq tabs; cbn [map replay_man]; [reflexivity|].
  cbn [medit_map m_jnum m_seq m_tab].
  destruct (m_jnum e) as [j|]; cbn [option_map]; apply IH.
Qed.

Lemma recover_full_image_map f img : order_embedding f -> f 0 = 0 ->
  recover_full (image_map f img) = recover_full img.
Proof.
  intros Hf H0. unfold recover_full, image_map. cbn [i_man i_frozen i_live].
  pose proof (replay_man_map f (i_man img) 0 0 []) as E. rewrite H0 in E. rewrite E.
  destruct (replay_man (i_man img) 0 0 []) as [[jn sq] tabs].
  set (js := match i_frozen img with Some fz => [fz] | None => [] end ++ [i_live img]).
  assert (Ejs : match option_map (jfile_map f) (i_frozen img) with Some fz => [fz] | None => [] end ++ [jfile_map f (i_live img)]
                = map (jfile_map f) js).
  { unfold js. destruct (i_frozen img); reflexivity. }
  rewrite Ejs. clear Ejs E. generalize (sq, tabs). induction js as [|j js IH]; intros st; [reflexivity|].
  cbn [map filter jfile_map j_num]. rewrite Hf. destruct (jn <=? j_num j); cbn [fold_left jfile_map j_recs]; apply IH.
Qed.

Lemma replay_journal_app a : forall b cur acc,
  replay_journal (a ++ b) cur acc = replay_journal b (fst (replay_journal a cur acc)) (snd (replay_journal a cur acc)).
Proof.
  induction a as [|x a IH]; intros b cur acc; cbn [app replay_journal]; [reflexivity|].
  destruct (b_seq x <? cur); apply IH.
Qed.

Lemma fold_replay_concat (ls : list (list Crash.batch)) : forall st,
  fold_left (fun st l => replay_journal l (fst st) (snd st)) ls st = replay_journal (concat ls) (fst st) (snd st).
Proof.
  induction ls as [|l ls IH]; intros [cur acc]; cbn [fold_left concat fst snd]; [reflexivity|].
  rewrite IH, replay_journal_app. reflexivity.
Qed.

Section OpenCrash.
  Variable jcrc : bytes -> N.
  Variable jp : jparams.
  Variable rp : SR.rparams.
  Variable kp : kparams.

  Local Notation jdesc := (OpenPathProofs.jdesc).
  Local Notation kept_prefixes := (OpenPathProofs.kept_prefixes).
  Local Notation selected := (OpenPathProofs.selected).

  (* a journal file of the image as a file of the record-level model: all of it, and the prefix a crash kept *)
  Definition jfull (jd : jdesc) : jfile :=
    {| j_num := jd_num jd; j_recs := map jb_abs (jd_bs jd); j_synced := jd_synced jd |}.
  Definition jfile_of (jd : jdesc) (k : nat) : jfile :=
    {| j_num := jd_num jd; j_recs := map jb_abs (firstn k (jd_bs jd)); j_synced := Nat.min k (jd_synced jd) |}.

  Lemma jprefix_jfull jd k : jprefix (jfull jd) k = jfile_of jd k.
  Proof. unfold jprefix, jfull, jfile_of. cbn [j_num j_recs j_synced]. rewrite firstn_map. reflexivity. Qed.

  Lemma jsel_no_prev jn n : 1 <= n -> SW.jsel jn 0 n = (jn <=? n).
  Proof. intros H. unfold SW.jsel. replace (n =? 0) with false by (symmetry; apply N.eqb_neq; lia). apply orb_false_r. Qed.

  (* the record-level image the bytes denote: the manifest records read, the journal prefixes kept *)
  Definition rimage (newb : SR.atrec -> list Crash.batch) (rs : list SR.srec) (jfz : option jdesc) (kf : nat)
      (jl : jdesc) (kl : nat) : image :=
    {| i_live := jfile_of jl kl; i_frozen := option_map (fun jf => jfile_of jf kf) jfz;
       i_man := map (medit_of rp newb) rs |}.

  Lemma recover_of_prefixes newb cmp rs j nf q live cps jfz jl bss :
    replay_result rp cmp rs = SpecOk j 0%Z nf q live cps ->
    1 <= jd_num jl -> match jfz with Some jf => 1 <= jd_num jf /\ jd_num jf < jd_num jl | None => True end ->
    kept_prefixes (selected j 0%Z (olist jfz ++ [jl])) bss ->
    exists kf kl, (jd_synced jl <= kl)%nat /\
      match jfz with Some jf => (jd_synced jf <= kf)%nat | None => True end /\
      recover_full (rimage newb rs jfz kf jl kl) =
        (snd (accepted (concat bss) q), flat_map newb (flat_map SR.sr_adds rs) ++ map jb_abs (fst (accepted (concat bss) q))).
  Proof.
    intros Espec Hl Hf Hp.
    pose proof (manifest_replay_abs rp newb cmp rs j 0%Z nf q live cps Espec) as Eman.
    unfold selected in Hp. change (Z.to_N 0) with 0 in Hp.
    assert (R : forall kf kl, recover_full (rimage newb rs jfz kf jl kl) =
              fold_left (fun st l => replay_journal l (fst st) (snd st))
                (map j_recs (filter (fun x => Z.to_N j <=? j_num x)
                                    (olist (option_map (fun jf => jfile_of jf kf) jfz) ++ [jfile_of jl kl])))
                (q, flat_map newb (flat_map SR.sr_adds rs))).
    { intros kf kl. unfold recover_full, rimage. cbn [i_man i_frozen i_live]. rewrite Eman.
      set (js := filter _ _). clearbody js. generalize (q, flat_map newb (flat_map SR.sr_adds rs)).
      induction js as [|x js IH]; intros st; cbn [map fold_left]; [reflexivity|apply IH]. }
    destruct jfz as [jf|]; cbn [olist app filter] in Hp.
    - destruct Hf as (Hf1 & Hf2).
      rewrite (jsel_no_prev _ _ Hf1), (jsel_no_prev _ _ Hl) in Hp.
      destruct (Z.to_N j <=? jd_num jf) eqn:Ef; destruct (Z.to_N j <=? jd_num jl) eqn:El.
      + inversion Hp as [|? b1 ? l1 (kf & Hkf & ->) Hp1]; subst.
        inversion Hp1 as [|? b2 ? l2 (kl & Hkl & ->) Hp2]; subst. inversion Hp2; subst.
        exists kf, kl. split; [exact Hkl|]. split; [exact Hkf|].
        rewrite R. cbn [option_map olist app filter jfile_of j_num]. rewrite Ef, El. cbn [map j_recs].
        rewrite (fold_replay_concat [_; _]). unfold jfile_of. cbn [concat fst snd j_recs]. rewrite !app_nil_r, <- map_app.
        rewrite accepted_replay. reflexivity.
      + apply N.leb_le in Ef. apply N.leb_gt in El. lia.
      + inversion Hp as [|? b2 ? l2 (kl & Hkl & ->) Hp2]; subst. inversion Hp2; subst.
        exists (jd_synced jf), kl. split; [exact Hkl|]. split; [lia|].
        rewrite R. cbn [option_map olist app filter jfile_of j_num]. rewrite Ef, El. cbn [map j_recs].
        rewrite (fold_replay_concat [_]). unfold jfile_of. cbn [concat fst snd j_recs]. rewrite !app_nil_r.
        rewrite accepted_replay. reflexivity.
      + inversion Hp; subst.
        exists (jd_synced jf), (jd_synced jl). split; [lia|]. split; [lia|].
        rewrite R. cbn [option_map olist app filter jfile_of j_num]. rewrite Ef, El. cbn [map fold_left concat accepted fst snd]. 
        rewrite app_nil_r. reflexivity.
    - rewrite (jsel_no_prev _ _ Hl) in Hp.
      destruct (Z.to_N j <=? jd_num jl) eqn:El.
      + inversion Hp as [|? b2 ? l2 (kl & Hkl & ->) Hp2]; subst. inversion Hp2; subst.
        exists 0%nat, kl. split; [exact Hkl|]. split; [exact I|].
        rewrite R. cbn [option_map olist app filter jfile_of j_num]. rewrite El. cbn [map j_recs].
        rewrite (fold_replay_concat [_]). unfold jfile_of. cbn [concat fst snd j_recs]. rewrite !app_nil_r.
        rewrite accepted_replay. reflexivity.
      + inversion Hp; subst.
        exists 0%nat, (jd_synced jl). split; [lia|]. split; [exact I|].
        rewrite R. cbn [option_map olist app filter jfile_of j_num]. rewrite El. cbn [map fold_left concat accepted fst snd].
        rewrite app_nil_r. reflexivity.
  Qed.

    Lemma last_some_none {A} (l : list (option A)) : Forall (fun o => o = None) l -> forall acc, last_some_from acc l = acc.
  Proof. induction 1 as [|o l -> Hl IH]; intros acc; [reflexivity|]. cbn [last_some_from]. apply IH. Qed.

  Lemma no_prev_pj cmp rs j pj nf q live cps :
    Forall (fun r => SR.has r (SR.tPrevJournalNum rp) = false) rs ->
    replay_result rp cmp rs = SpecOk j pj nf q live cps -> pj = 0%Z.
  Proof.
    intros Hn E. unfold replay_result in E.
    destruct (scalar_of (SR.tComparer rp) SR.sr_comparer rs); [|discriminate].
    destruct (negb (beq b cmp)); [discriminate|].
    destruct (scalar_of (SR.tNextFileNum rp) SR.sr_nextfile rs); [|discriminate].
    destruct (scalar_of (SR.tJournalNum rp) SR.sr_journal rs); [|discriminate].
    destruct (scalar_of (SR.tSeqNum rp) SR.sr_seq rs); [|discriminate].
    injection E as _ Epj _ _ _ _. rewrite <- Epj.
    unfold scalar_of, last_some. rewrite last_some_none; [reflexivity|].
    apply Forall_forall. intros o Ho. apply in_map_iff in Ho as (r & <- & Hr).
    rewrite Forall_forall in Hn. rewrite (Hn r Hr). reflexivity.
  Qed.

  Lemma jprefix_map f j k : jprefix (jfile_map f j) k = jfile_map f (jprefix j k).
  Proof. reflexivity. Qed.

  (* how a described storage image (manifest records mrecs with ks synced, journals jfz? and jl) relates to a state s
     of the record-level model, under the renumbering f *)
  Definition denotes (newb : SR.atrec -> list Crash.batch) (f : N -> N) (s : pstate)
      (mrecs : list (SR.srec * bytes)) (ks : nat) (jfz : option jdesc) (jl : jdesc) : Prop :=
    p_live s = jfile_map f (jfull jl) /\
    match jfz, p_frozen s with
    | Some jf, Some fz => fz = jfile_map f (jfull jf)
    | None, Some fz => j_synced fz = 0%nat          (* a never-synced file may have vanished *)
    | None, None => True
    | Some _, None => False
    end /\
    p_man s = map (medit_map f) (map (medit_of rp newb) (map fst mrecs)) /\
    p_msynced s = ks.

  Lemma rimage_is_image newb f s mrecs ks jfz jl k kf kl :
    denotes newb f s mrecs ks jfz jl -> (ks <= k)%nat -> (jd_synced jl <= kl)%nat ->
    match jfz with Some jf => (jd_synced jf <= kf)%nat | None => True end ->
    is_image s (image_map f (rimage newb (firstn k (map fst mrecs)) jfz kf jl kl)).
  Proof.
    intros (Hl & Hf & Hm & Hs) Hk Hkl Hkf. unfold is_image, image_map, rimage. cbn [i_live i_frozen i_man].
    split; [|split].
    - exists kl. rewrite Hl. cbn [jfile_map jfull j_synced]. split; [exact Hkl|].
      rewrite jprefix_map, jprefix_jfull. reflexivity.
    - destruct jfz as [jf|]; destruct (p_frozen s) as [fz|]; cbn [option_map]; try exact Hf; try exact I.
      subst fz. exists kf. cbn [jfile_map jfull j_synced]. split; [exact Hkf|].
      rewrite jprefix_map, jprefix_jfull. reflexivity.
    - exists k. rewrite Hs, Hm. split; [exact Hk|]. rewrite !firstn_map. reflexivity.
  Qed.
End OpenCrash.

Section OpenRefines.
  Variable jcrc : bytes -> N.
  Variable jp : jparams.
  Hypothesis jpok : jparams_ok jp.
  Variable rp : SR.rparams.
  Hypothesis rpok : rparams_ok rp.
  Variable kp : kparams.
  Hypothesis kpok : kparams_ok kp.
  Hypothesis seek_val : keyTypeSeek kp <= keyTypeVal kp.
  Variable mp : MemDB.mparams.
  Hypothesis mpok : MemDB.mparams_ok mp.
  Variable tp : Table.tparams.
  Variable tcrc : bytes -> N.
  Variable compress : bytes -> bytes.
  Variable snappy : bool.
  Variable fgen : option (bytes * (list (N * list bytes) -> bytes)).
  Variable blockSize ri : N.
  Variable c : comparer.
  Hypothesis cok : comparer_ok c.

  Local Notation bhl := 12.
  Local Notation openb := (open_bytes jcrc jp rp kp bhl mp tp tcrc compress snappy fgen blockSize ri c).
  Local Notation image_ok := (OpenPathProofs.image_ok jcrc jp rp kp).
  Local Notation manifest_ok := (OpenPathProofs.manifest_ok rp).
  Local Notation jb_entries := (OpenJournalProofs.jb_entries kp).
  Local Notation sort_levels := (OpenPathProofs.sort_levels c).

  Definition pair_batch (x : N * N) : Crash.batch := {| b_seq := fst x; b_n := snd x |}.

  Lemma map_pair_batch l : map pair_batch (map jb_pair l) = map jb_abs l.
  Proof. rewrite map_map. reflexivity. Qed.

  Definition jnums_ok (jfz : option jdesc) (jl : jdesc) : Prop :=
    1 <= jd_num jl /\ match jfz with Some jf => 1 <= jd_num jf /\ jd_num jf < jd_num jl | None => True end.

  Lemma jnums_nodup jfz jl : jnums_ok jfz jl -> NoDup (map jd_num (olist jfz ++ [jl])).
  Proof using kp seek_val.
    intros (Hn1 & Hn2). destruct jfz as [jf|]; cbn [olist app map]; [|repeat constructor; intros []].
    destruct Hn2 as (_ & Hlt). constructor; [intros [E|[]]; lia|]. repeat constructor. intros [].
  Qed.

  Definition no_prev (mrecs : list (SR.srec * bytes)) : Prop :=
    Forall (fun x => SR.has (fst x) (SR.tPrevJournalNum rp) = false) mrecs.

  Lemma kept_prefixes_in (sel : list jdesc) bss b : OpenPathProofs.kept_prefixes sel bss -> In b (concat bss) ->
    exists jd, In jd sel /\ In b (jd_bs jd).
  Proof.
    induction 1 as [|jd x sel' bss' (k0 & _ & ->) F IH]; cbn [concat]; [intros []|].
    intros Hb. apply in_app_or in Hb as [Hb|Hb].
    - exists jd. split; [left; reflexivity|eapply ListLemmas.in_firstn; exact Hb].
    - destruct (IH Hb) as (jd' & A & B). exists jd'. split; [right; exact A|exact B].
  Qed.

  (* what the manifest prefix and the kept journal prefixes denote: a record-level image of s, recovered to the
     accepted batches *)
  Lemma prefixes_refine o mrecs ks jfz jl newb f s k j pj nf q live cps bss :
    no_prev mrecs -> jnums_ok jfz jl -> order_embedding f -> f 0 = 0 -> pinv s -> denotes rp newb f s mrecs ks jfz jl ->
    (ks <= k)%nat -> replay_result rp (oo_cmp_name o) (firstn k (map fst mrecs)) = SpecOk j pj nf q live cps ->
    kept_prefixes (selected j pj (olist jfz ++ [jl])) bss ->
    pj = 0%Z /\ exists rimg, is_image s (image_map f rimg) /\
      recover_full rimg = (snd (accepted (concat bss) q),
                           flat_map newb (flat_map SR.sr_adds (firstn k (map fst mrecs))) ++
                           map jb_abs (fst (accepted (concat bss) q))) /\
      recover (image_map f rimg) = recover rimg /\
      (forall b, In b (p_acked s) -> In b (recover rimg)) /\ (forall b, In b (recover rimg) -> In b (p_issued s)) /\
      sorted_b (recover rimg).
  Proof.
    intros Hnp (Hn1 & Hn2) Hf Hf0 Hinv Hden Hk Espec Hp.
    assert (Epj : pj = 0%Z).
    { apply (no_prev_pj rp (oo_cmp_name o) _ _ _ _ _ _ _ ) with (2 := Espec).
      apply Forall_forall. intros x Hx. apply ListLemmas.in_firstn in Hx. apply in_map_iff in Hx as (y & <- & Hy).
      unfold no_prev in Hnp. rewrite Forall_forall in Hnp. exact (Hnp y Hy). }
    subst pj.
    assert (Hn2' : match jfz with Some jf => 1 <= jd_num jf /\ jd_num jf < jd_num jl | None => True end) by exact Hn2.
    destruct (recover_of_prefixes jcrc rp newb (oo_cmp_name o) _ j nf q live cps jfz jl bss Espec Hn1 Hn2' Hp)
      as (kf & kl & Hkl & Hkf & Erec).
    set (rimg := rimage rp newb (firstn k (map fst mrecs)) jfz kf jl kl) in *.
    assert (Him : is_image s (image_map f rimg)) by (apply (rimage_is_image rp newb f s mrecs ks jfz jl k kf kl Hden Hk Hkl Hkf)).
    assert (Erecm : recover (image_map f rimg) = recover rimg).
    { unfold recover. rewrite (recover_full_image_map f rimg Hf Hf0). reflexivity. }
    destruct (crash_safe_inv s _ Hinv Him) as (Hack & Hiss & Hsort). rewrite Erecm in Hack, Hiss, Hsort.
    split; [reflexivity|]. exists rimg. split; [exact Him|]. split; [exact Erec|]. split; [exact Erecm|].
    split; [exact Hack|]. split; [exact Hiss|exact Hsort].
  Qed.

  (* Read-only Open of a byte-level image of a state s of the record-level model: it succeeds, the image it read is
     a record-level image of s, and the batches in its buffer, preceded by those the manifest's tables make
     durable, are exactly what the model's recover returns for that image — with db.seq the model's running
     number.  Hence (crash_safe_inv) every acknowledged batch is there, only issued batches are, in issue order. *)
  Theorem open_ro_refines_recover o hts img m mrecs ks jfz jl newb f s :
    oo_strict_man o = false -> oo_strict_j o = false -> oo_ro o = true -> oo_err_exist o = false ->
    heights_okl mp hts ->
    image_ok o img m mrecs ks (olist jfz ++ [jl]) -> manifest_ok o mrecs ks -> no_prev mrecs -> jnums_ok jfz jl ->
    order_embedding f -> f 0 = 0 -> pinv s -> denotes rp newb f s mrecs ks jfz jl ->
    exists r rimg k j nf q live cps lv bss d,
      openb o hts img = OOk r /\
      is_image s (image_map f rimg) /\ (ks <= k)%nat /\
      replay_result rp (oo_cmp_name o) (firstn k (map fst mrecs)) = SpecOk j 0%Z nf q live cps /\
      recover_full rimg = (os_seq r, flat_map newb (flat_map SR.sr_adds (firstn k (map fst mrecs))) ++ map pair_batch (os_kept r)) /\
      recover (image_map f rimg) = recover rimg /\
      (forall b, In b (p_acked s) -> In b (recover rimg)) /\
      (forall b, In b (recover rimg) -> In b (p_issued s)) /\
      sorted_b (recover rimg) /\
      os_seq r = snd (accepted (concat bss) q) /\
      os_kept r = map jb_pair (fst (accepted (concat bss) q)) /\
      (forall b, In b (concat bss) -> In b (jd_bs jl) \/ exists jf, jfz = Some jf /\ In b (jd_bs jf)) /\
      os_bs r = mkBS (Some d) None (levels_of (si_files img) (sort_levels lv)) /\
      (forall l : nat, nth l lv [] = live_at (Z.of_nat l) live) /\
      mem_ok c kp mp d /\
      (forall x, In x (mem_entries mp (Some d)) <-> In x (flat_map jb_entries (fst (accepted (concat bss) q)))) /\
      os_image r = img /\ os_removed r = [].
  Proof.
    intros Hsm Hsj Hro Hee Hh Himg Hman Hnp (Hn1 & Hn2) Hf Hf0 Hinv Hden.
    destruct (open_ro_written jcrc jp jpok rp rpok kp kpok seek_val mp mpok tp tcrc compress snappy fgen blockSize ri c cok
                o hts img m mrecs ks _ Hsm Hsj Hro Hee Hh Himg Hman)
      as (k & j & pj & nf & q & live & cps & lv & bss & r & d & Hk & Espec & Hp & Eopen & Eseq & Ekept & Ebs & Hlv & Hmok & Hin & Eimg & Erm & _).
    destruct (prefixes_refine o mrecs ks jfz jl newb f s k j pj nf q live cps bss Hnp (conj Hn1 Hn2) Hf Hf0 Hinv Hden Hk Espec Hp)
      as (-> & rimg & Him & Erec & Erecm & Hack & Hiss & Hsort).
    exists r, rimg, k, j, nf, q, live, cps, lv, bss, d.
    split; [exact Eopen|]. split; [exact Him|]. split; [exact Hk|]. split; [exact Espec|]. split.
    { rewrite Erec, Eseq, Ekept, map_pair_batch. reflexivity. }
    split; [exact Erecm|]. split; [exact Hack|]. split; [exact Hiss|]. split; [exact Hsort|].
    split; [exact Eseq|]. split; [exact Ekept|]. split.
    { (* the kept batches come from the journal files *)
      intros b Hb. destruct (kept_prefixes_in _ _ b Hp Hb) as (jd & Hjd & Hin').
      unfold OpenPathProofs.selected in Hjd. apply filter_In in Hjd as [Hjd _].
      apply in_app_or in Hjd as [Hjd|[<-|[]]]; [|left; exact Hin'].
      destruct jfz as [jf|]; [|destruct Hjd]. destruct Hjd as [<-|[]]. right. exists jf. split; [reflexivity|exact Hin']. }
    split; [exact Ebs|]. split; [exact Hlv|]. split; [exact Hmok|]. split; [exact Hin|]. split; [exact Eimg|exact Erm].
  Qed.

  (* Read-write Open of such an image, in the partial-correctness form: WHENEVER it returns a DB, the record-level
     image it read is an image of s and what it kept — all of it in tables, the buffer empty — together with what the
     manifest's tables make durable is what the model's recover returns; db.seq is the model's running number.
     That it returns (the table writer accepts the buffer's keys, sessionRecord.encode is given no negative number,
     the janitor finds every table the version names) is Store/OpenTotalProofs.v open_rw_total. *)
  Theorem open_rw_refines_recover_partial o hts img m mrecs ks jfz jl newb f s r :
    oo_strict_man o = false -> oo_strict_j o = false -> oo_ro o = false -> oo_err_exist o = false ->
    heights_okl mp hts ->
    image_ok o img m mrecs ks (olist jfz ++ [jl]) -> manifest_ok o mrecs ks -> no_prev mrecs -> jnums_ok jfz jl ->
    order_embedding f -> f 0 = 0 -> pinv s -> denotes rp newb f s mrecs ks jfz jl ->
    openb o hts img = OOk r ->
    exists rimg k j nf q live cps d,
      is_image s (image_map f rimg) /\ (ks <= k)%nat /\
      replay_result rp (oo_cmp_name o) (firstn k (map fst mrecs)) = SpecOk j 0%Z nf q live cps /\
      recover_full rimg = (os_seq r, flat_map newb (flat_map SR.sr_adds (firstn k (map fst mrecs))) ++ map pair_batch (os_kept r)) /\
      (forall b, In b (p_acked s) -> In b (recover rimg)) /\
      (forall b, In b (recover rimg) -> In b (p_issued s)) /\
      sorted_b (recover rimg) /\
      bs_mem (os_bs r) = Some d /\ mem_entries mp (Some d) = [] /\ bs_frozen (os_bs r) = None.
  Proof.
    intros Hsm Hsj Hro Hee Hh Himg Hman Hnp (Hn1 & Hn2) Hf Hf0 Hinv Hden Eopen.
    destruct (open_rw_written jcrc jp jpok rp rpok kp kpok seek_val mp mpok tp tcrc compress snappy fgen blockSize ri c cok
                o hts img m mrecs ks _ r Hsm Hsj Hro Hee Hh Himg Hman (jnums_nodup jfz jl (conj Hn1 Hn2)) Eopen)
      as (k & j & pj & nf & q & live & cps & bss & d & Hk & Espec & Hp & Eseq & Ekept & Emem & Eent & Efz).
    destruct (prefixes_refine o mrecs ks jfz jl newb f s k j pj nf q live cps bss Hnp (conj Hn1 Hn2) Hf Hf0 Hinv Hden Hk Espec Hp)
      as (-> & rimg & Him & Erec & Erecm & Hack & Hiss & Hsort).
    exists rimg, k, j, nf, q, live, cps, d.
    split; [exact Him|]. split; [exact Hk|]. split; [exact Espec|]. split.
    { rewrite Erec, Eseq, Ekept, map_pair_batch. reflexivity. }
    split; [exact Hack|]. split; [exact Hiss|]. split; [exact Hsort|].
    split; [exact Emem|]. split; [exact Eent|exact Efz].
  Qed.
End OpenRefines.

From GL Require Import Lsm.ReadPathProofs Lsm.ReorgProofs Store.OpenEndProofs.

Section OpenEndToEnd.
  Variable jcrc : bytes -> N.
  Variable jp : jparams.
  Hypothesis jpok : jparams_ok jp.
  Variable rp : SR.rparams.
  Hypothesis rpok : rparams_ok rp.
  Variable kp : kparams.
  Hypothesis kpok : kparams_ok kp.
  Hypothesis seek_val : keyTypeSeek kp <= keyTypeVal kp.
  Variable mp : MemDB.mparams.
  Hypothesis mpok : MemDB.mparams_ok mp.
  Variable tp : Table.tparams.
  Variable tcrc : bytes -> N.
  Variable compress : bytes -> bytes.
  Variable snappy : bool.
  Variable fgen : option (bytes * (list (N * list bytes) -> bytes)).
  Variable blockSize ri : N.
  Variable c : comparer.
  Hypothesis cok : comparer_ok c.
  (* the reader's side *)
  Variable decompress : bytes -> option bytes.
  Variable fname : option bytes.
  Variable ufc : bytes -> N -> bytes -> bool.
  Variable verify : bool.

  Local Notation bhl := 12.
  Local Notation openb := (open_bytes jcrc jp rp kp bhl mp tp tcrc compress snappy fgen blockSize ri c).
  Local Notation image_ok := (OpenPathProofs.image_ok jcrc jp rp kp).
  Local Notation manifest_ok := (OpenPathProofs.manifest_ok rp).
  Local Notation sort_levels := (OpenPathProofs.sort_levels c).
  Local Notation wfb := (wf_bstate c kp mp tp tcrc decompress fname ufc verify ri).
  Local Notation absS := (ReadPath.abs c mp tp tcrc decompress fname ufc verify ri).
  Local Notation getb := (db_get_bytes c kp mp tp tcrc decompress fname ufc verify).

  (* the plain map driven by a list of batches of the record-level model, whose records the ghost [cont] gives *)
  Definition cmap (cont : Crash.batch -> list brec) (m : amap) (l : list Crash.batch) : amap :=
    fold_left (fun m b => fold_left (a_apply c kp) (cont b) m) l m.

  Lemma cmap_app cont m a b : cmap cont m (a ++ b) = cmap cont (cmap cont m a) b.
  Proof. unfold cmap. apply fold_left_app. Qed.

  Lemma cmap_batches cont (acc : list jbatch) : (forall b, In b acc -> cont (jb_abs b) = jb_recs b) -> forall m,
    cmap cont m (map jb_abs acc) = apply_batches c kp m acc.
  Proof.
    induction acc as [|b r IH]; intros H m; [reflexivity|].
    cbn [map cmap fold_left apply_batches]. rewrite (H b (or_introl eq_refl)).
    apply IH. intros x Hx. apply H. right; exact Hx.
  Qed.

  Lemma accepted_bound M bs : (forall b, In b bs -> fst b + jb_n b <= M) -> forall cur, cur <= M ->
    snd (accepted bs cur) <= M.
  Proof.
    induction bs as [|b r IH]; intros H cur Hc; cbn [accepted]; [exact Hc|].
    destruct (fst b <? cur); [apply IH; [intros x Hx; apply H; right; exact Hx|exact Hc]|].
    specialize (IH (fun x Hx => H x (or_intror Hx)) (fst b + jb_n b) (H b (or_introl eq_refl))).
    destruct (accepted r (fst b + jb_n b)). exact IH.
  Qed.

  (* what the tables named by a manifest prefix hold: a well-formed layout that answers like the plain map of the
     batches those tables make durable (C01, C06 and C13 are about exactly this: flushes and compactions keep it),
     read at a sequence number s0 that nothing in the tables exceeds and below which every journal batch that the
     sequence rule accepts starts.  s0 is the recorded sequence number q after a flush at run time (the rule tests
     "first number < q", the batches written after the flush start above q) and q - 1 when the manifest was written
     by a recovery (which records one more than the last number it replayed). *)
  Definition tables_answer (o : oopts) (img : simage) (mrecs : list (SR.srec * bytes)) (ks : nat)
      (newb : SR.atrec -> list Crash.batch) (cont : Crash.batch -> list brec) (jfz : option jdesc) (jl : jdesc) : Prop :=
    forall k j nf q live cps lv d0, (ks <= k)%nat ->
      replay_result rp (oo_cmp_name o) (firstn k (map fst mrecs)) = SpecOk j 0%Z nf q live cps ->
      (forall l : nat, nth l lv [] = live_at (Z.of_nat l) live) -> MemDB.mdb_new mp = MemDB.Ok d0 ->
      let st0 := mkBS (Some d0) None (levels_of (si_files img) (sort_levels lv)) in
      wfb st0 /\ uniq_in (all_entries (absS st0)) /\ q <= keyMaxSeq kp /\
      exists s0, s0 <= q /\
        (forall x, In x (all_entries (absS st0)) -> e_seq x <= s0) /\
        (forall b, (In b (jd_bs jl) \/ exists jf, jfz = Some jf /\ In b (jd_bs jf)) -> q <= fst b -> s0 < fst b) /\
        forall key, wf_bytes key ->
          bapi (getb st0 key s0) =
          Some (a_get c key (cmap cont [] (flat_map newb (flat_map SR.sr_adds (firstn k (map fst mrecs)))))).

  (* the journals' batches: their records are what the ghost says, and their sequence numbers are in range *)
  Definition journal_batches_ok (cont : Crash.batch -> list brec) (jfz : option jdesc) (jl : jdesc) : Prop :=
    forall b, (In b (jd_bs jl) \/ exists jf, jfz = Some jf /\ In b (jd_bs jf)) ->
      cont (jb_abs b) = jb_recs b /\ fst b + jb_n b <= keyMaxSeq kp.

  Theorem open_ro_end_to_end o hts img m mrecs ks jfz jl newb cont f s :
    oo_strict_man o = false -> oo_strict_j o = false -> oo_ro o = true -> oo_err_exist o = false ->
    heights_okl mp hts ->
    image_ok o img m mrecs ks (olist jfz ++ [jl]) -> manifest_ok o mrecs ks -> no_prev rp mrecs -> jnums_ok jfz jl ->
    order_embedding f -> f 0 = 0 -> pinv s -> denotes rp newb f s mrecs ks jfz jl ->
    journal_batches_ok cont jfz jl -> tables_answer o img mrecs ks newb cont jfz jl ->
    exists r L,
      openb o hts img = OOk r /\ wfb (os_bs r) /\
      (forall b, In b (p_acked s) -> In b L) /\ (forall b, In b L -> In b (p_issued s)) /\ sorted_b L /\
      os_image r = img /\
      forall key, wf_bytes key -> bapi (getb (os_bs r) key (os_seq r)) = Some (a_get c key (cmap cont [] L)).
  Proof.
    intros Hsm Hsj Hro Hee Hh Himg Hman Hnp Hnum Hf Hf0 Hinv Hden Hjb Htab.
    destruct (open_ro_refines_recover jcrc jp jpok rp rpok kp kpok seek_val mp mpok tp tcrc compress snappy fgen blockSize ri
                c cok o hts img m mrecs ks jfz jl newb f s Hsm Hsj Hro Hee Hh Himg Hman Hnp Hnum Hf Hf0 Hinv Hden)
      as (r & rimg & k & j & nf & q & live & cps & lv & bss & d & Eopen & Him & Hk & Espec & Erec & _ & Hack & Hiss & Hsort &
          Eseq & Ekept & Hfrom & Ebs & Hlv & Hmok & Hin & Eimg & _).
    destruct (OpenPathProofs.new_mem_ok kp seek_val mp mpok c) as (d0 & Enew & Hm0 & Hent0).
    destruct (Htab k j nf q live cps lv d0 Hk Espec Hlv Enew) as (W0 & Hu & Hqm & s0 & Hs0 & Hold & Hgap & Hans).
    set (st0 := mkBS (Some d0) None (levels_of (si_files img) (sort_levels lv))) in *.
    set (acc := fst (accepted (concat bss) q)) in *.
    set (tabs := flat_map newb (flat_map SR.sr_adds (firstn k (map fst mrecs)))) in *.
    assert (Hbok : Forall (OpenJournalProofs.jb_ok kp) (concat bss)).
    { apply Forall_forall. intros b Hb. destruct Himg as (_ & _ & _ & _ & Hjs). rewrite Forall_forall in Hjs.
      destruct (Hfrom b Hb) as [Hl|(jf & -> & Hl)].
      - assert (Hjl : In jl (olist jfz ++ [jl])) by (apply in_or_app; right; left; reflexivity).
        destruct (Hjs jl Hjl) as (Hall & _).
        rewrite Forall_forall in Hall. exact (Hall b Hl).
      - assert (Hjf : In jf (olist (Some jf) ++ [jl])) by (left; reflexivity).
        destruct (Hjs jf Hjf) as (Hall & _).
        rewrite Forall_forall in Hall. exact (Hall b Hl). }
    assert (Hemax : snd (accepted (concat bss) q) <= keyMaxSeq kp).
    { apply accepted_bound; [|exact Hqm]. intros b Hb. exact (proj2 (Hjb b (Hfrom b Hb))). }
    assert (EL : recover rimg = tabs ++ map jb_abs acc).
    { unfold recover. rewrite Erec. cbn [snd]. rewrite Ekept, map_pair_batch. reflexivity. }
    assert (Hgap' : forall b, In b (concat bss) -> q <= fst b -> s0 < fst b) by (intros b Hb; exact (Hgap b (Hfrom b Hb))).
    exists r, (recover rimg). split; [exact Eopen|].
    assert (Ewm : os_bs r = with_mem st0 d) by (rewrite Ebs; reflexivity).
    assert (Hcont : forall b, In b acc -> cont (jb_abs b) = jb_recs b).
    { intros b Hb. apply accepted_in in Hb. exact (proj1 (Hjb b (Hfrom b Hb))). }
    split.
    { (* well-formed: any key will do to invoke the theorem *)
      destruct (replayed_state_answers c cok kp kpok seek_val mp mpok tp tcrc decompress fname ufc verify ri
                  st0 d0 d (concat bss) s0 q [] (cmap cont [] tabs) W0 eq_refl Hent0 Hu Hold Hs0 Hgap' Hbok Hemax Hmok Hin (Forall_nil _)
                  (Hans [] (Forall_nil _))) as (W' & _).
      rewrite Ewm. exact W'. }
    split; [exact Hack|]. split; [exact Hiss|]. split; [exact Hsort|]. split; [exact Eimg|].
    intros key Wk.
    destruct (replayed_state_answers c cok kp kpok seek_val mp mpok tp tcrc decompress fname ufc verify ri
                st0 d0 d (concat bss) s0 q key (cmap cont [] tabs) W0 eq_refl Hent0 Hu Hold Hs0 Hgap' Hbok Hemax Hmok Hin Wk
                (Hans key Wk)) as (_ & G).
    rewrite Ewm, Eseq, G, EL, cmap_app, (cmap_batches cont acc Hcont). reflexivity.
  Qed.
End OpenEndToEnd.
