(* Store/RepairRefineProofs.v — the loop of recoverTable on bytes (Store/RepairBytes.v recover_loop) simulates the loop
   of the abstract model (Store/Repair.v recover_one folded over the files), file by file, when every table file
   DENOTES an abstract file: its scan yields pairs with decodable internal keys whose entries are the abstract file's
   readable entries, and the number of error callbacks is the abstract file's number of damaged blocks. *)
From Coq Require Import List NArith ZArith Bool Lia.
From GL Require Import Base.Bytes Base.Order Codec.IKey Codec.Table Lsm.Lsm Lsm.ReadPath
  Store.OpenPath Store.RepairBytes Store.RepairSeqProofs.
Import ListNotations.
Local Open Scope N_scope.

Section Refine.
  Variable rp : SR.rparams.
  Variable kp : kparams.
  Variable tp : tparams.
  Variable tcrc : bytes -> N.
  Variable compress : bytes -> bytes.
  Variable decompress : bytes -> option bytes.
  Variable fname : option bytes.
  Variable ufc : bytes -> N -> bytes -> bool.
  Variable verify : bool.
  Variable wo : WP.wopts.
  Variable c : comparer.

  Local Notation one := (recover_one_bytes rp kp tp tcrc compress decompress fname ufc verify wo c).
  Local Notation loop := (recover_loop rp kp tp tcrc compress decompress fname ufc verify wo c).
  Local Notation scanb := (scan tp tcrc decompress fname ufc verify c).
  Local Notation cblocksb := (cblocks_of tp tcrc decompress fname ufc verify c).

  Definition key_dec (kv : bytes * bytes) : Prop := ik_validb (fst kv) = true.

  Lemma valid_corr kv : key_dec kv -> RP.valid kp (entry_of kv) = key_valid kp (fst kv).
  Proof.
    unfold key_dec, ik_validb, RP.valid, key_valid, entry_of, parse_ikey, ik_dec.
    destruct (wf_bytesb (fst kv)); [|discriminate].
    destruct (split_ikey (fst kv)) as [k|]; [|discriminate]. intros _. cbn [e_kind].
    destruct (keyTypeVal kp <? ik_kind k) eqn:E.
    - apply N.leb_gt. apply N.ltb_lt. exact E.
    - apply N.leb_le. apply N.ltb_ge. exact E.
  Qed.

  Lemma seq_corr kv : key_dec kv -> key_valid kp (fst kv) = true -> e_seq (entry_of kv) = key_seq kp (fst kv).
  Proof.
    unfold key_dec, ik_validb, key_seq, key_valid, entry_of, parse_ikey, ik_dec.
    destruct (wf_bytesb (fst kv)); [|discriminate].
    destruct (split_ikey (fst kv)) as [k|]; [|discriminate]. intros _.
    destruct (keyTypeVal kp <? ik_kind k); [discriminate|]. intros _. reflexivity.
  Qed.

  Lemma good_corr all : Forall key_dec all -> filter (RP.valid kp) (map entry_of all) = map entry_of (good_of kp all).
  Proof.
    induction 1 as [|x l Hx Hl IH]; [reflexivity|]. unfold good_of in *. cbn [map filter].
    rewrite (valid_corr x Hx). destruct (key_valid kp (fst x)); cbn [map]; [f_equal|]; exact IH.
  Qed.

  Lemma tseq_corr g : Forall (fun kv => key_dec kv /\ key_valid kp (fst kv) = true) g ->
    RP.tseq (map entry_of g) = tseq_of kp g.
  Proof.
    intros H. unfold RP.tseq, tseq_of. generalize 0.
    induction H as [|x l [Hx Hv] Hl IH]; intros m1; [reflexivity|]. cbn [map fold_left].
    rewrite (seq_corr x Hx Hv). apply IH.
  Qed.

  (* the bytes of a table file denote an abstract file *)
  Definition denotes (data : bytes) (f : RP.tfile) : Prop :=
    exists all, scanb data = Some all /\ Forall key_dec all /\
      map entry_of all = RP.readable f /\ cblocksb data = RP.cblocks f.

  (* what one step of each loop did, side by side *)
  Definition step_match (fs0 : files) (s : tstat) (f : RP.tfile) : Prop :=
    ts_num s = RP.tf_num f /\ ts_good s = N.of_nat (length (RP.good kp f)) /\ ts_ckeys s = RP.ckeys kp f /\
    ts_cblocks s = RP.cblocks f /\ ts_seq s = RP.tseq (RP.good kp f).

  Definition tab_match (a : SR.atrec) (t : table) : Prop :=
    SR.at_level a = 0%Z /\ SR.at_num a = Z.of_N (t_num t) /\
    exists g, t_entries t = map entry_of g /\ SR.at_imin a = WP.key_first g /\ SR.at_imax a = WP.key_last g.

  Definition sim (st : rb) (r : RP.rstate) : Prop :=
    rb_maxseq st = RP.r_maxseq r /\ Forall2 tab_match (SR.sr_adds (rb_rec st)) (RP.r_added r).

  Lemma one_refines strict st num st' f r : one strict st num = OOk st' ->
    denotes (img_file (c_files (rb_c st)) num) f -> RP.tf_num f = num -> sim st r ->
    sim st' (RP.recover_one kp strict r f) /\
    exists s, rb_stats st' = rb_stats st ++ [s] /\ step_match (c_files (rb_c st)) s f /\
      (stat_kept s = false <-> RP.r_dropped (RP.recover_one kp strict r f) = RP.r_dropped r + 1) /\
      RP.r_goodkeys (RP.recover_one kp strict r f) = RP.r_goodkeys r + ts_good s /\
      RP.r_ckeys (RP.recover_one kp strict r f) = RP.r_ckeys r + ts_ckeys s /\
      RP.r_cblocks (RP.recover_one kp strict r f) = RP.r_cblocks r + ts_cblocks s.
  Proof.
    intros E (all & Hs & Hv & Hr & Hcb) Hn [Hm Ha].
    assert (Hg : RP.good kp f = map entry_of (good_of kp all)).
    { unfold RP.good. rewrite <- Hr. apply good_corr. exact Hv. }
    assert (Hck : RP.ckeys kp f = N.of_nat (length all) - N.of_nat (length (good_of kp all))).
    { unfold RP.ckeys. rewrite Hg, <- Hr, !map_length. reflexivity. }
    assert (Hts : RP.tseq (RP.good kp f) = tseq_of kp (good_of kp all)).
    { rewrite Hg. apply tseq_corr. apply Forall_forall. intros kv Hkv. unfold good_of in Hkv.
      apply filter_In in Hkv as [Hin Hk]. split; [|exact Hk]. rewrite Forall_forall in Hv. apply Hv. exact Hin. }
    revert E. unfold recover_one_bytes, img_file in *. cbv zeta. rewrite Hs.
    unfold RP.recover_one. cbv zeta. rewrite Hck, <- Hcb, Hts, Hg, map_length.
    set (data := match f_lookup (c_files (rb_c st)) (SW.FTable, num) with Some d => d | None => [] end) in *.
    set (g := good_of kp all) in *.
    set (corrupted := (0 <? N.of_nat (length all) - N.of_nat (length g)) || (0 <? cblocksb data)).
    assert (Hsm : forall s, ts_num s = num -> ts_good s = N.of_nat (length g) ->
                    ts_ckeys s = N.of_nat (length all) - N.of_nat (length g) -> ts_cblocks s = cblocksb data ->
                    ts_seq s = tseq_of kp g -> step_match (c_files (rb_c st)) s f).
    { intros s A B C D F. unfold step_match. rewrite Hts, Hg, map_length, Hck, <- Hcb, Hn. fold g. repeat split; assumption. }
    destruct (strict && corrupted) eqn:Esc.
    { intros E. injection E as <-. cbn [rb_maxseq rb_rec rb_stats]. split; [split; [exact Hm | exact Ha]|].
      eexists. split; [reflexivity|]. split; [apply Hsm; reflexivity|].
      cbn [stat_kept ts_verdict ts_good ts_ckeys ts_cblocks RP.r_dropped RP.r_goodkeys RP.r_ckeys RP.r_cblocks].
      repeat split; reflexivity. }
    destruct g as [|kv0 gr] eqn:Eg.
    { intros E. injection E as <-. cbn [map rb_maxseq rb_rec rb_stats]. split; [split; [exact Hm | exact Ha]|].
      eexists. split; [reflexivity|]. split; [apply Hsm; reflexivity|].
      cbn [stat_kept ts_verdict ts_good ts_ckeys ts_cblocks RP.r_dropped RP.r_goodkeys RP.r_ckeys RP.r_cblocks].
      repeat split; reflexivity. }
    assert (Hlast : fst (last (kv0 :: gr) kv0) = WP.key_last (kv0 :: gr)).
    { unfold WP.key_last. destruct gr as [|y gr']; reflexivity. }
    assert (Htab : forall sz, tab_match (SR.mkat 0%Z (Z.of_N num) sz (fst kv0) (fst (last (kv0 :: gr) kv0)))
                                {| t_num := RP.tf_num f; t_entries := map entry_of (kv0 :: gr) |}).
    { intros sz. split; [reflexivity|]. split; [cbn [SR.at_num t_num]; rewrite Hn; reflexivity|].
      exists (kv0 :: gr). split; [reflexivity|]. split; [reflexivity | exact Hlast]. }
    assert (Hnd : forall A (x : A) l, l ++ [x] <> l).
    { intros A x l H. apply (f_equal (@length A)) in H. rewrite app_length in H. cbn in H. lia. }
    cbn [map].
    destruct corrupted eqn:Ec.
    - destruct (WP.table_bytes c kp tp tcrc compress wo (kv0 :: gr)) as [nd|]; [|discriminate].
      intros E. injection E as <-. cbn [rb_maxseq rb_rec rb_stats RP.r_maxseq RP.r_added]. split.
      { split; [rewrite Hm; reflexivity|]. unfold SR.add_table. cbn [SR.sr_adds].
        apply Forall2_app; [exact Ha|]. constructor; [apply Htab|constructor]. }
      eexists. split; [reflexivity|]. split; [apply Hsm; reflexivity|].
      cbn [stat_kept ts_verdict ts_good ts_ckeys ts_cblocks RP.r_dropped RP.r_goodkeys RP.r_ckeys RP.r_cblocks].
      split; [split; [discriminate | intros H; exfalso; lia]|]. repeat split; reflexivity.
    - intros E. injection E as <-. cbn [rb_maxseq rb_rec rb_stats RP.r_maxseq RP.r_added]. split.
      { split; [rewrite Hm; reflexivity|]. unfold SR.add_table. cbn [SR.sr_adds].
        apply Forall2_app; [exact Ha|]. constructor; [apply Htab|constructor]. }
      eexists. split; [reflexivity|]. split; [apply Hsm; reflexivity|].
      cbn [stat_kept ts_verdict ts_good ts_ckeys ts_cblocks RP.r_dropped RP.r_goodkeys RP.r_ckeys RP.r_cblocks].
      split; [split; [discriminate | intros H; exfalso; lia]|]. repeat split; reflexivity.
  Qed.

  (* the whole loop: the files in the order the storage lists them, each denoting its abstract file *)
  Theorem loop_refines strict fs0 : forall nums (fl : list RP.tfile) st st' r, NoDup nums ->
    loop strict nums st = OOk st' ->
    (forall n, In n nums -> f_lookup (c_files (rb_c st)) (SW.FTable, n) = f_lookup fs0 (SW.FTable, n)) ->
    Forall2 (fun n f => RP.tf_num f = n /\ denotes (img_file fs0 n) f) nums fl ->
    sim st r ->
    sim st' (fold_left (RP.recover_one kp strict) fl r) /\
    exists ss, rb_stats st' = rb_stats st ++ ss /\
      Forall2 (fun s f => ts_num s = RP.tf_num f /\ ts_good s = N.of_nat (length (RP.good kp f)) /\
                          ts_ckeys s = RP.ckeys kp f /\ ts_cblocks s = RP.cblocks f /\
                          ts_seq s = RP.tseq (RP.good kp f)) ss fl /\
      RP.r_dropped (fold_left (RP.recover_one kp strict) fl r) =
        RP.r_dropped r + N.of_nat (length (filter (fun s => negb (stat_kept s)) ss)).
  Proof.
    induction nums as [|num nums IH]; intros fl st st' r Hnd; cbn [recover_loop].
    - intros E _ Hfl Hsim. injection E as <-. inversion Hfl; subst. cbn [fold_left]. split; [exact Hsim|].
      exists []. split; [symmetry; apply app_nil_r|]. split; [constructor|]. cbn. lia.
    - destruct (one strict st num) as [st1|e] eqn:E1; cbn [obind]; [|discriminate].
      intros E Hf Hfl Hsim. inversion Hfl as [|? f ? fl' [Hn Hden] Hfl']; subst. cbn [fold_left].
      inversion Hnd as [|? ? Hnotin Hnd']; subst.
      assert (Hden' : denotes (img_file (c_files (rb_c st)) (RP.tf_num f)) f).
      { unfold img_file in *. rewrite (Hf _ (or_introl eq_refl)). exact Hden. }
      destruct (one_refines strict st _ st1 f r E1 Hden' eq_refl Hsim) as (Hsim1 & s & Hss & Hstep & Hdrop & _).
      (* one_facts takes a spare checksum function (the jcrc of its section) that its statement does not mention *)
      apply one_facts in E1 as (_ & _ & _ & _ & _ & _ & _ & Hfiles); [|exact tcrc].
      destruct (IH fl' st1 st' (RP.recover_one kp strict r f) Hnd' E) as (Hsim' & ss & Kss & Kall & Kd); [|exact Hfl'|exact Hsim1|].
      { intros n Hin. rewrite Hfiles; [apply Hf; right; exact Hin| |discriminate].
        intros En. injection En as ->. contradiction. }
      split; [exact Hsim'|]. exists (s :: ss). split; [rewrite Kss, Hss, <- app_assoc; reflexivity|].
      split; [constructor; [exact Hstep | exact Kall]|].
      rewrite Kd. cbn [filter]. destruct (stat_kept s) eqn:Ek; cbn [negb length].
      + assert (RP.r_dropped (RP.recover_one kp strict r f) = RP.r_dropped r); [|lia].
        unfold RP.recover_one. cbv zeta.
        destruct (strict && _) eqn:Eb.
        * exfalso. clear - Hdrop Ek Eb. unfold RP.recover_one in Hdrop. cbv zeta in Hdrop. rewrite Eb in Hdrop.
          cbn [RP.r_dropped] in Hdrop. destruct Hdrop as [_ H]. specialize (H eq_refl). congruence.
        * destruct (RP.good kp f) eqn:Eg; [|reflexivity].
          exfalso. clear - Hdrop Ek Eb Eg. unfold RP.recover_one in Hdrop. cbv zeta in Hdrop. rewrite Eb, Eg in Hdrop.
          cbn [RP.r_dropped] in Hdrop. destruct Hdrop as [_ H]. specialize (H eq_refl). congruence.
      + rewrite (proj1 Hdrop eq_refl). lia.
  Qed.
End Refine.
