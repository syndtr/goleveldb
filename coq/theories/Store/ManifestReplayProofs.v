(* Store/ManifestReplayProofs.v — replaying a manifest: the model of session.recover's loop (one reused record,
   versionStaging with its per-level scratch maps, setCompPtr, the final checks) against the plain meaning of the
   records decoded one by one (Codec/SessionRecordSpec.v: replay_result), the connection to the record-level
   persistence model Store/Crash.v (replay_man on the edits the records denote), and the instantiation of the
   abstract edit codec of Store/CrashBytes.v by the manifest record codec. *)
From GL Require Import Base.Bytes Base.BytesProofs Base.Varint Base.VarintProofs
  Codec.SessionRecord Codec.SessionRecordSpec Codec.SessionRecordProofs Codec.SessionRecordCutProofs
  Codec.SessionRecordBuildProofs.
From GL Require Import Store.Crash Store.CrashProofs Codec.Journal Codec.JournalSpec Store.CrashBytes Store.CrashBytesProofs.
From Coq Require Import Lia ZArith.
Open Scope N_scope.

Lemma nth_grow {A} (d : A) lv k l : nth l (lv ++ repeat d k) d = nth l lv d.
Proof.
  destruct (Nat.lt_ge_cases l (length lv)) as [H|H].
  - apply app_nth1. exact H.
  - rewrite app_nth2 by lia. rewrite nth_repeat. symmetry. apply nth_overflow. lia.
Qed.

Lemma upd_nth_length {A} n (f : A -> A) l : length (upd_nth n f l) = length l.
Proof. revert n. induction l as [|x l IH]; intros [|n]; cbn [upd_nth length]; try reflexivity. rewrite IH. reflexivity. Qed.

Lemma nth_upd_same {A} n (f : A -> A) l d : (n < length l)%nat -> nth n (upd_nth n f l) d = f (nth n l d).
Proof.
  revert n. induction l as [|x l IH]; intros [|n] H; cbn [length] in H; try lia; cbn [upd_nth nth]; [reflexivity|].
  apply IH. lia.
Qed.

Lemma nth_upd_other {A} n (f : A -> A) l d k : k <> n -> nth k (upd_nth n f l) d = nth k l d.
Proof.
  revert n k. induction l as [|x l IH]; intros [|n] [|k] H; cbn [upd_nth nth]; try reflexivity; try lia.
  apply IH. lia.
Qed.

Lemma nth_upd_grow {A} (d : A) n f lv l :
  nth l (upd_nth n f (lv ++ repeat d (S n - length lv))) d = if Nat.eqb l n then f (nth l lv d) else nth l lv d.
Proof.
  destruct (Nat.eqb_spec l n) as [->|Hne].
  - rewrite nth_upd_same, nth_grow; [reflexivity|]. rewrite app_length, repeat_length. lia.
  - rewrite nth_upd_other, nth_grow by exact Hne. reflexivity.
Qed.

(* a fold of steps that cannot panic on admissible elements, each keeping R against an abstract step *)
Lemma pfold_rep {X S L} (step : S -> X -> pres S) (absf : L -> X -> L) (ok : X -> Prop) (R : S -> L -> Prop) :
  (forall s l x, R s l -> ok x -> exists s', step s x = POk s' /\ R s' (absf l x)) ->
  forall xs s l, Forall ok xs -> R s l -> exists s', pfold step xs s = POk s' /\ R s' (fold_left absf xs l).
Proof.
  intros Hstep. induction xs as [|x xs IH]; intros s l Hok H; cbn [pfold fold_left].
  - exists s. split; [reflexivity|exact H].
  - inversion Hok as [|? ? H0 Hok']; subst. destruct (Hstep s l x H H0) as (s1 & -> & R1). apply IH; assumption.
Qed.

Lemma nth_trim_levels L : forall l, nth l (trim_levels L) [] = nth l L [].
Proof.
  induction L as [|x L IH]; intros l; [reflexivity|]. cbn [trim_levels].
  destruct (trim_levels L) as [|y T] eqn:E.
  - destruct x as [|a x].
    + destruct l as [|l]; cbn [nth]; [reflexivity|]. rewrite <- IH. destruct l; reflexivity.
    + destruct l as [|l]; cbn [nth]; [reflexivity|]. rewrite <- IH. destruct l; reflexivity.
  - destruct l as [|l]; cbn [nth]; [reflexivity|]. apply IH.
Qed.

Lemma last_some_from_snoc {A} (l : list (option A)) : forall acc o,
  last_some_from acc (l ++ [o]) = match o with Some a => Some a | None => last_some_from acc l end.
Proof. induction l as [|x l IH]; intros acc o; cbn [app last_some_from]; [reflexivity|]. apply IH. Qed.

Lemma last_some_from_some {A} (l : list (option A)) : forall acc j d,
  last_some_from acc l = Some j -> acc = None -> last_some_from (Some d) l = Some j.
Proof.
  induction l as [|x l IH]; intros acc j d H Hacc; cbn [last_some_from] in *.
  - subst. discriminate.
  - destruct x as [a|]; [exact H|]. subst. apply (IH None j d H eq_refl).
Qed.

Section Replay.
  Variable p : rparams.
  Hypothesis pok : rparams_ok p.

  Lemma live_at_del_same live d :
    live_at (dt_level d) (live_del live d) = filter (fun t => negb (at_num t =? dt_num d)%Z) (live_at (dt_level d) live).
  Proof.
    unfold live_at, live_del, same_file. induction live as [|a live IH]; [reflexivity|]. cbn [filter].
    destruct (at_level a =? dt_level d)%Z eqn:El; cbn [andb negb filter].
    - destruct (at_num a =? dt_num d)%Z; cbn [negb filter]; rewrite ?El; cbn [filter]; rewrite IH; reflexivity.
    - rewrite El. exact IH.
  Qed.

  Lemma live_at_del_other live d l : l <> dt_level d -> live_at l (live_del live d) = live_at l live.
  Proof.
    intros H. unfold live_at, live_del, same_file. induction live as [|a live IH]; [reflexivity|]. cbn [filter].
    destruct (at_level a =? dt_level d)%Z eqn:El; cbn [andb negb filter].
    - destruct (at_num a =? dt_num d)%Z; cbn [negb filter].
      + replace (at_level a =? l)%Z with false by lia. exact IH.
      + rewrite IH. reflexivity.
    - rewrite IH. reflexivity.
  Qed.

  Lemma live_add_as_del live t : live_add live t = t :: live_del live (mkdt (at_level t) (at_num t)).
  Proof. reflexivity. Qed.

  Definition stg_rep (stg : list scratch) (live : list atrec) : Prop :=
    (forall l : nat, map snd (sc_added (nth l stg sc_empty)) = live_at (Z.of_nat l) live) /\
    (forall l : nat, sc_deleted (nth l stg sc_empty) = []) /\
    (forall l : nat, Forall (fun kv => fst kv = at_num (snd kv)) (sc_added (nth l stg sc_empty))) /\
    Forall (fun t => (0 <= at_level t)%Z) live.

  Lemma stg_rep_init : stg_rep [] [].
  Proof.
    repeat split; try (intros l; destruct l; cbn; try reflexivity; constructor). constructor.
  Qed.

  Lemma map_snd_map_del k (m : list (Z * atrec)) : Forall (fun kv => fst kv = at_num (snd kv)) m ->
    map snd (map_del k m) = filter (fun t => negb (at_num t =? k)%Z) (map snd m).
  Proof.
    unfold map_del. induction 1 as [|kv m Hkv Hm IH]; [reflexivity|]. cbn [filter map].
    rewrite Hkv. destruct (at_num (snd kv) =? k)%Z; cbn [negb map]; rewrite IH; reflexivity.
  Qed.

  Lemma map_del_keys k (m : list (Z * atrec)) : Forall (fun kv => fst kv = at_num (snd kv)) m ->
    Forall (fun kv => fst kv = at_num (snd kv)) (map_del k m).
  Proof.
    unfold map_del. induction 1 as [|kv m Hkv Hm IH]; [constructor|]. cbn [filter].
    destruct (negb _); [constructor; assumption|assumption].
  Qed.

  Lemma base_nil_has l : base_has_tables [] l = false.
  Proof. unfold base_has_tables. destruct (Z.to_nat l); reflexivity. Qed.

  Lemma grown_length stg lvl : (Z.to_nat lvl < length (stg ++ repeat sc_empty (S (Z.to_nat lvl) - length stg)))%nat.
  Proof. rewrite app_length, repeat_length. lia. Qed.

  Lemma live_del_nonneg live d : Forall (fun t => (0 <= at_level t)%Z) live -> Forall (fun t => (0 <= at_level t)%Z) (live_del live d).
  Proof. apply incl_Forall, incl_filter. Qed.

  Lemma commit_del_rep stg live d : stg_rep stg live -> (0 <= dt_level d)%Z ->
    exists stg', commit_del [] stg d = POk stg' /\ stg_rep stg' (live_del live d).
  Proof.
    intros (Ha & Hd & Hk & Hl) H0. unfold commit_del, grow_levels.
    replace (dt_level d <? 0)%Z with false by lia. cbn [pbind]. eexists. split; [reflexivity|].
    rewrite base_nil_has. set (n := Z.to_nat (dt_level d)).
    assert (Hz : Z.of_nat n = dt_level d) by (unfold n; lia).
    repeat split; [intros l; rewrite nth_upd_grow; destruct (Nat.eqb_spec l n) as [->|Hne]; cbn [sc_added sc_deleted]..|].
    - rewrite map_snd_map_del by apply Hk. rewrite Ha, Hz. symmetry. apply live_at_del_same.
    - rewrite Ha. symmetry. apply live_at_del_other. lia.
    - apply Hd.
    - apply Hd.
    - apply map_del_keys, Hk.
    - apply Hk.
    - apply live_del_nonneg, Hl.
  Qed.

  Lemma commit_add_rep stg live t : stg_rep stg live -> (0 <= at_level t)%Z ->
    exists stg', commit_add stg t = POk stg' /\ stg_rep stg' (live_add live t).
  Proof.
    intros (Ha & Hd & Hk & Hl) H0. unfold commit_add, grow_levels.
    replace (at_level t <? 0)%Z with false by lia. cbn [pbind]. eexists. split; [reflexivity|].
    set (n := Z.to_nat (at_level t)).
    assert (Hz : Z.of_nat n = at_level t) by (unfold n; lia).
    rewrite live_add_as_del. set (d := mkdt (at_level t) (at_num t)).
    repeat split; [intros l; rewrite nth_upd_grow; destruct (Nat.eqb_spec l n) as [->|Hne]; cbn [sc_added sc_deleted]..|].
    - cbn [map_put map snd]. rewrite map_snd_map_del by apply Hk. rewrite Ha, Hz.
      unfold live_at at 2. cbn [filter]. rewrite Z.eqb_refl. f_equal.
      symmetry. apply (live_at_del_same live d).
    - rewrite Ha. unfold live_at at 2. cbn [filter]. replace (at_level t =? Z.of_nat l)%Z with false by lia.
      symmetry. apply (live_at_del_other live d). cbn [d dt_level]. lia.
    - rewrite Hd. reflexivity.
    - apply Hd.
    - constructor; [reflexivity|]. apply map_del_keys, Hk.
    - apply Hk.
    - constructor; [exact H0|]. apply live_del_nonneg, Hl.
  Qed.

  Lemma commit_rep stg live r : stg_rep stg live -> lv_ok r ->
    exists stg', commit [] stg r = POk stg' /\ stg_rep stg' (live_apply live r).
  Proof.
    intros H (_ & Ha & Hd). unfold commit, live_apply.
    destruct (pfold_rep _ live_del _ stg_rep commit_del_rep _ stg live Hd H) as (stg1 & -> & R1).
    exact (pfold_rep _ live_add _ stg_rep commit_add_rep _ stg1 _ Ha R1).
  Qed.

  Lemma finish_rep stg live : stg_rep stg live -> forall l, nth l (finish [] stg) [] = live_at (Z.of_nat l) live.
  Proof.
    intros (Ha & Hd & _ & _) l. unfold finish. rewrite nth_trim_levels. cbn [length Nat.max].
    assert (F : forall i, finish_level (nth i [] []) (nth i stg sc_empty) = live_at (Z.of_nat i) live).
    { intros i. rewrite <- Ha. unfold finish_level. rewrite Hd.
      replace (nth i (@nil (list atrec)) []) with (@nil atrec) by (destruct i; reflexivity).
      destruct (sc_added (nth i stg sc_empty)); reflexivity. }
    destruct (Nat.lt_ge_cases l (length stg)) as [H|H].
    - rewrite (nth_indep _ [] (finish_level (nth 0%nat [] []) (nth 0%nat stg sc_empty))) by (rewrite map_length, seq_length; exact H).
      rewrite (map_nth (fun i => finish_level (nth i [] []) (nth i stg sc_empty))).
      rewrite seq_nth by exact H. apply F.
    - rewrite nth_overflow by (rewrite map_length, seq_length; exact H).
      rewrite <- Ha. rewrite nth_overflow by exact H. reflexivity.
  Qed.

  Definition cps_rep (cps : list (option bytes)) (all : list cprec) : Prop :=
    forall l : nat, nth l cps None = cp_lookup all (Z.of_nat l).

  Lemma set_comp_ptr_rep cps all c : cps_rep cps all -> (0 <= cp_level c)%Z ->
    exists cps', set_comp_ptr cps c = POk cps' /\ cps_rep cps' (all ++ [c]).
  Proof.
    intros H H0. unfold set_comp_ptr. replace (cp_level c <? 0)%Z with false by lia. eexists. split; [reflexivity|].
    intros l. rewrite nth_upd_grow. unfold cp_lookup, last_some. rewrite map_app. cbn [map]. rewrite last_some_from_snoc.
    destruct (Nat.eqb_spec l (Z.to_nat (cp_level c))) as [->|Hne].
    - replace (cp_level c =? Z.of_nat _)%Z with true by lia. reflexivity.
    - replace (cp_level c =? Z.of_nat l)%Z with false by lia. apply H.
  Qed.

  Lemma pfold_cps_rep cs : forall cps all, cps_rep cps all -> Forall (fun c => (0 <= cp_level c)%Z) cs ->
    exists cps', pfold set_comp_ptr cs cps = POk cps' /\ cps_rep cps' (all ++ cs).
  Proof.
    intros cps all H Hc.
    replace (all ++ cs) with (fold_left (fun a c => a ++ [c]) cs all).
    - exact (pfold_rep _ _ _ cps_rep set_comp_ptr_rep cs cps all Hc H).
    - clear. revert all. induction cs as [|c cs IH]; intros all; cbn [fold_left]; [symmetry; apply app_nil_r|].
      rewrite IH, <- app_assoc. reflexivity.
  Qed.

  Definition acc (r0 r : srec) : srec := reset_lists p (carry p r0 r).
  Definition lists_empty (r : srec) : Prop := sr_cps r = [] /\ sr_adds r = [] /\ sr_dels r = [].

  Lemma acc_lists_empty r0 r : lists_empty (acc r0 r).
  Proof. repeat split. Qed.

  Definition scalar_tag (t : N) : Prop :=
    t = tComparer p \/ t = tJournalNum p \/ t = tNextFileNum p \/ t = tSeqNum p \/ t = tPrevJournalNum p.

  (* in [tags p] the scalar fields stand at positions 0-3 and 7, the three list fields at 4-6 *)
  Lemma scalar_not_list t : scalar_tag t ->
    (tCompPtr p =? t) = false /\ (tDelTable p =? t) = false /\ (tAddTable p =? t) = false.
  Proof.
    intros Ht.
    assert (exists k, (k < 4 \/ k = 7)%nat /\ t = nth k (tags p) 0) as (k & Hk & ->).
    { destruct Ht as [-> | [-> | [-> | [-> | ->]]]];
        [exists 0%nat|exists 1%nat|exists 2%nat|exists 3%nat|exists 7%nat]; (split; [lia|reflexivity]). }
    assert (D : forall i, (4 <= i < 7)%nat -> (nth i (tags p) 0 =? nth k (tags p) 0) = false).
    { intros i Hi. apply N.eqb_neq. intros E.
      apply (proj1 (NoDup_nth (tags p) 0) (proj1 pok)) in E; cbn [tags length]; lia. }
    split; [apply (D 4%nat)|split; [apply (D 5%nat)|apply (D 6%nat)]]; lia.
  Qed.

  Lemma has_acc r0 r t : scalar_tag t -> has (acc r0 r) t = has r0 t || has r t.
  Proof.
    intros Ht. unfold acc, reset_lists, reset_deleted, reset_added, reset_comp_ptrs, carry, has.
    cbn [sr_has]. rewrite !N.clearbit_eqb, N.lor_spec.
    destruct (scalar_not_list t Ht) as (-> & -> & ->). cbn [negb]. rewrite !andb_true_r. reflexivity.
  Qed.

  (* a scalar field f of the reused record, with its bit t, after the records rs *)
  Lemma scalar_fold {A} t (f : srec -> A) : scalar_tag t ->
    (forall r0 r, f (acc r0 r) = if has r t then f r else f r0) ->
    forall rs r0,
      (if has (fold_left acc rs r0) t then Some (f (fold_left acc rs r0)) else None) =
      last_some_from (if has r0 t then Some (f r0) else None) (map (fun r => if has r t then Some (f r) else None) rs).
  Proof.
    intros Ht Hf. induction rs as [|r rs IH]; intros r0; cbn [fold_left map last_some_from]; [reflexivity|].
    rewrite IH. f_equal. rewrite has_acc by exact Ht. rewrite Hf.
    destruct (has r t); [rewrite orb_true_r; reflexivity|rewrite orb_false_r; reflexivity].
  Qed.

  Lemma scalar_final {A} t (f : srec -> A) rs : scalar_tag t ->
    (forall r0 r, f (acc r0 r) = if has r t then f r else f r0) ->
    (if has (fold_left acc rs sr_empty) t then Some (f (fold_left acc rs sr_empty)) else None) = scalar_of t f rs.
  Proof.
    intros Ht Hf. rewrite (scalar_fold t f Ht Hf). unfold scalar_of, last_some.
    replace (has sr_empty t) with false by (unfold has; cbn [sr_empty sr_has]; rewrite N.bits_0; reflexivity).
    reflexivity.
  Qed.

  Lemma recover_loop_ok strict recs rs : Forall2 (fun b r => decode p sr_empty b = DOk r) recs rs ->
    forall rec cps stg live all, lists_empty rec -> stg_rep stg live -> cps_rep cps all ->
    exists cps' stg',
      recover_loop p strict recs rec cps stg = inr (fold_left acc rs rec, cps', stg') /\
      stg_rep stg' (fold_left (live_apply) rs live) /\ cps_rep cps' (all ++ flat_map sr_cps rs).
  Proof.
    induction 1 as [|b r recs rs Hd Hrest IH]; intros rec cps stg live all Hle Hs Hc; cbn [recover_loop fold_left flat_map].
    - exists cps, stg. rewrite app_nil_r. split; [reflexivity|split; assumption].
    - pose proof (decode_carry p pok rec b) as D. rewrite Hd in D. rewrite D.
      assert (L : lv_ok r) by (apply (decode_lv p sr_empty b r lv_ok_empty Hd)).
      destruct Hle as (E1 & E2 & E3).
      assert (C1 : sr_cps (carry p rec r) = sr_cps r) by (cbn [carry sr_cps]; rewrite E1; reflexivity).
      assert (C2 : sr_adds (carry p rec r) = sr_adds r) by (cbn [carry sr_adds]; rewrite E2; reflexivity).
      assert (C3 : sr_dels (carry p rec r) = sr_dels r) by (cbn [carry sr_dels]; rewrite E3; reflexivity).
      rewrite C1. destruct L as (Lc & La & Ld).
      destruct (pfold_cps_rep (sr_cps r) cps all Hc Lc) as (cps1 & Ec & Rc). rewrite Ec.
      destruct (commit_rep stg live (carry p rec r) Hs) as (stg1 & Es & Rs).
      { unfold lv_ok. rewrite C1, C2, C3. repeat split; assumption. }
      rewrite Es.
      assert (LA : live_apply live (carry p rec r) = live_apply live r) by (unfold live_apply; rewrite C2, C3; reflexivity).
      rewrite LA in Rs.
      destruct (IH (acc rec r) cps1 stg1 (live_apply live r) (all ++ sr_cps r) (acc_lists_empty rec r) Rs Rc)
        as (cps2 & stg2 & E & R1 & R2).
      exists cps2, stg2. split; [exact E|]. split; [exact R1|]. rewrite <- app_assoc in R2. exact R2.
  Qed.

  (* Applying the records of a manifest in order, as session.recover does — one reused record, scratch maps per
     level, compaction pointers, the final checks — gives exactly what the records decoded one by one denote:
     the same failure of the consistency checks, or the numbers set last, per level the live tables (a deletion
     removes a (level, number), an addition replaces it, deletions of a record first), per level the compaction
     pointer set last.  For EVERY list of records each of which decodes; strict or not. *)
  Theorem manifest_replay strict cmp recs rs : Forall2 (fun b r => decode p sr_empty b = DOk r) recs rs ->
    agrees (session_recover p strict cmp recs) (replay_result p cmp rs).
  Proof.
    intros H. unfold session_recover.
    destruct (recover_loop_ok strict recs rs H sr_empty [] [] [] [] (conj eq_refl (conj eq_refl eq_refl)) stg_rep_init)
      as (cps & stg & E & Rs & Rc).
    { intros l. destruct l; reflexivity. }
    rewrite E. clear E. set (R := fold_left acc rs sr_empty) in *.
    assert (S1 := scalar_final (tComparer p) sr_comparer rs (or_introl eq_refl) (fun _ _ => eq_refl)).
    assert (S2 := scalar_final (tNextFileNum p) sr_nextfile rs (or_intror (or_intror (or_introl eq_refl))) (fun _ _ => eq_refl)).
    assert (S3 := scalar_final (tJournalNum p) sr_journal rs (or_intror (or_introl eq_refl)) (fun _ _ => eq_refl)).
    assert (S4 := scalar_final (tSeqNum p) sr_seq rs (or_intror (or_intror (or_intror (or_introl eq_refl)))) (fun _ _ => eq_refl)).
    assert (S5 := scalar_final (tPrevJournalNum p) sr_prevjournal rs (or_intror (or_intror (or_intror (or_intror eq_refl)))) (fun _ _ => eq_refl)).
    fold R in S1, S2, S3, S4, S5. unfold replay_result.
    rewrite <- S1. destruct (has R (tComparer p)); cbn [negb]; [|reflexivity].
    destruct (beq (sr_comparer R) cmp); cbn [negb]; [|reflexivity].
    rewrite <- S2. destruct (has R (tNextFileNum p)); cbn [negb]; [|reflexivity].
    rewrite <- S3. destruct (has R (tJournalNum p)); cbn [negb]; [|reflexivity].
    rewrite <- S4. destruct (has R (tSeqNum p)); cbn [negb]; [|reflexivity].
    rewrite <- S5. cbn [agrees ss_journal ss_prevjournal ss_nextfile ss_seq ss_levels ss_cptrs].
    repeat split.
    - destruct (has R (tPrevJournalNum p)); reflexivity.
    - intros l. apply finish_rep. exact Rs.
    - intros l. apply Rc.
  Qed.

  Fixpoint last_dflt {A} (d : A) (l : list (option A)) : A :=
    match l with
    | [] => d
    | o :: rest => last_dflt (match o with Some a => a | None => d end) rest
    end.

  Lemma replay_man_spec es : forall jn sq tabs,
    replay_man es jn sq tabs = (last_dflt jn (map m_jnum es), last_dflt sq (map m_seq es), tabs ++ flat_map m_tab es).
  Proof.
    induction es as [|e es IH]; intros jn sq tabs; cbn [replay_man map last_dflt flat_map].
    - rewrite app_nil_r. reflexivity.
    - rewrite IH. rewrite <- app_assoc. reflexivity.
  Qed.

  Lemma last_dflt_some {A} (l : list (option A)) : forall acc d,
    last_dflt (match acc with Some a => a | None => d end) l =
    match last_some_from acc l with Some a => a | None => d end.
  Proof.
    induction l as [|x l IH]; intros acc d; cbn [last_dflt last_some_from]; [reflexivity|].
    destruct x as [a|]; [apply (IH (Some a) d)|apply IH].
  Qed.

  Lemma last_dflt_map {A B} (g : A -> B) (l : list (option A)) : forall d,
    last_dflt (g d) (map (option_map g) l) = g (last_dflt d l).
  Proof.
    induction l as [|x l IH]; intros d; cbn [map last_dflt]; [reflexivity|].
    rewrite <- IH. destruct x; reflexivity.
  Qed.

  (* When the replay of the records succeeds, the manifest-edit list they denote (journal number, sequence
     number, the batches each added table newly makes durable) replays in the record-level model to the same
     journal and sequence numbers, and to the batches of all tables ever added, in order. *)
  Theorem manifest_replay_abs newb cmp rs j pj nf q live cps :
    replay_result p cmp rs = SpecOk j pj nf q live cps ->
    replay_man (map (medit_of p newb) rs) 0 0 [] = (Z.to_N j, q, flat_map newb (flat_map sr_adds rs)).
  Proof.
    unfold replay_result. intros H.
    destruct (scalar_of (tComparer p) sr_comparer rs); [|discriminate].
    destruct (negb _); [discriminate|].
    destruct (scalar_of (tNextFileNum p) sr_nextfile rs); [|discriminate].
    destruct (scalar_of (tJournalNum p) sr_journal rs) as [j'|] eqn:Ej; [|discriminate].
    destruct (scalar_of (tSeqNum p) sr_seq rs) as [q'|] eqn:Eq; [|discriminate].
    injection H as <- _ _ <- _ _.
    rewrite replay_man_spec. cbn [app]. rewrite !map_map. cbn [medit_of m_jnum m_seq m_tab].
    f_equal; [f_equal|].
    - unfold scalar_of, last_some in Ej.
      pose proof (last_dflt_map Z.to_N (map (fun r => if has r (tJournalNum p) then Some (sr_journal r) else None) rs) 0%Z) as M.
      rewrite map_map in M. change (Z.to_N 0) with 0 in M.
      erewrite map_ext in M; [rewrite M|].
      + f_equal. rewrite (last_dflt_some _ None 0%Z), Ej. reflexivity.
      + intros r. cbn beta. destruct (has r (tJournalNum p)); reflexivity.
    - unfold scalar_of, last_some in Eq. rewrite (last_dflt_some _ None 0), Eq. reflexivity.
    - clear. induction rs as [|r rs IH]; [reflexivity|]. cbn [map flat_map]. rewrite IH, flat_map_app. reflexivity.
  Qed.

  Theorem codecs_ok_medit enc_batch dec_batch s :
    (forall b, In b (p_issued s) -> dec_batch (enc_batch b) = Some b) ->
    Forall medit_ok (p_man s) ->
    codecs_ok enc_batch dec_batch (enc_medit p) (dec_medit p) s.
  Proof.
    intros Hb Hm. split; [exact Hb|]. intros e He. apply medit_roundtrip; [exact pok|].
    rewrite Forall_forall in Hm. apply Hm. exact He.
  Qed.

  Theorem crash_safe_bytes_concrete crc jp : jparams_ok jp ->
    forall enc_batch dec_batch ck ops b,
    (forall x, In x (p_issued (prun ops)) -> dec_batch (enc_batch x) = Some x) ->
    Forall medit_ok (p_man (prun ops)) ->
    is_byte_image crc jp enc_batch (enc_medit p) ck (prun ops) b ->
    let r := recover_image_bytes crc jp dec_batch (dec_medit p) ck (prun ops) b in
    (forall x, In x (p_acked (prun ops)) -> In x r) /\
    (forall x, In x r -> In x (p_issued (prun ops))) /\
    sorted_b r.
  Proof.
    intros Hj enc_batch dec_batch ck ops b Hb Hm Hi.
    apply (crash_safe_bytes crc jp Hj enc_batch dec_batch (enc_medit p) (dec_medit p) ck ops b); [|exact Hi].
    apply codecs_ok_medit; assumption.
  Qed.
End Replay.
