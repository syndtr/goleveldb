(* Store/SweepInv.v — the invariant Inv of the step machine of Store/Sweep.v (InvC: what holds of a closed DB; Good:
   one or the other, by the opened flag), and its preservation by the updates the steps are made of: a Remove call, changes
   to the table map, job records, the steps of a running DB other than commit, discard and close (the step_ lemmas), and the
   install of session.commit.  The steps left out are in SweepCommit.v, SweepSteps.v and SweepOpen.v. *)
From Coq Require Import NArith List Bool Lia.
From GL Require Import Store.Sweep Store.SweepProofs.
From GL Require Mem.ListLemmas.
Import ListNotations.
Open Scope N_scope.


Lemma tget_In : forall m t c, tget m t = Some c -> In (t, c) m.
Proof.
  induction m as [|[t' c'] m IH]; cbn; intros t c H; [discriminate|].
  destruct (t =? t') eqn:E.
  - apply N.eqb_eq in E. inversion H; subst. auto.
  - right. apply IH; auto.
Qed.

Lemma In_tget : forall m t c, NoDup (map fst m) -> In (t, c) m -> tget m t = Some c.
Proof.
  induction m as [|[t' c'] m IH]; cbn; intros t c Hn H; [destruct H|].
  inversion Hn as [|x l Hnot Hn']; subst. destruct H as [H|H].
  - inversion H; subst. rewrite N.eqb_refl. reflexivity.
  - destruct (N.eqb_spec t t') as [E|E].
    + subst. exfalso. apply Hnot. apply in_map_iff. exists (t', c). auto.
    + apply IH; auto.
Qed.

Lemma tget_filter_keys : forall (p : N -> bool) m t,
  tget (filter (fun x => p (fst x)) m) t = if p t then tget m t else None.
Proof.
  induction m as [|[t' c'] m IH]; cbn; intros t; [destruct (p t); auto|].
  destruct (p t') eqn:Ep; cbn.
  - destruct (t =? t') eqn:E; auto. apply N.eqb_eq in E. subst. rewrite Ep. auto.
  - destruct (t =? t') eqn:E; auto. apply N.eqb_eq in E. subst. rewrite IH, Ep. auto.
Qed.

Lemma tget_tdel : forall m t u, tget (tdel m t) u = if t =? u then None else tget m u.
Proof. intros. unfold tdel. rewrite (tget_filter_keys (fun x => negb (t =? x))). destruct (t =? u); reflexivity. Qed.

Lemma tget_tdel_eq : forall m t, tget (tdel m t) t = None.
Proof. intros. rewrite tget_tdel, N.eqb_refl. reflexivity. Qed.

Lemma tget_tdel_neq : forall m t u, t <> u -> tget (tdel m t) u = tget m u.
Proof. intros m t u H. rewrite tget_tdel. apply N.eqb_neq in H. rewrite H. reflexivity. Qed.

Lemma tget_tset : forall m t c u, tget (tset m t c) u = if t =? u then Some c else tget m u.
Proof.
  intros. unfold tset. cbn. rewrite (N.eqb_sym u t). destruct (t =? u) eqn:E; auto.
  apply N.eqb_neq in E. apply tget_tdel_neq; auto.
Qed.

Lemma tdel_keys : forall m t x, In x (map fst (tdel m t)) <-> In x (map fst m) /\ x <> t.
Proof.
  intros. unfold tdel. rewrite !in_map_iff. split.
  - intros [[u c] [E H]]. cbn in E; subst. apply filter_In in H. destruct H as [H E]. cbn in E.
    rewrite negb_true_iff, N.eqb_neq in E. split; [exists (x, c); auto | congruence].
  - intros [[[u c] [E H]] Hn]. cbn in E; subst. exists (x, c). split; auto. apply filter_In. split; auto.
    cbn. rewrite negb_true_iff, N.eqb_neq. congruence.
Qed.

Lemma tdel_NoDup : forall m t, NoDup (map fst m) -> NoDup (map fst (tdel m t)).
Proof. intros. unfold tdel. apply (ListLemmas.NoDup_map_filter fst); auto. Qed.

Lemma tset_NoDup : forall m t c, NoDup (map fst m) -> NoDup (map fst (tset m t c)).
Proof.
  intros. unfold tset. cbn. constructor; [rewrite tdel_keys; tauto | apply tdel_NoDup; auto].
Qed.

Lemma retag_keys : forall f m, map fst (retag f m) = map fst m.
Proof. intros. unfold retag. rewrite map_map. reflexivity. Qed.

Lemma tget_retag : forall f m t, tget (retag f m) t = option_map (f t) (tget m t).
Proof.
  induction m as [|[t' c'] m IH]; cbn; intros t; auto.
  destruct (t =? t') eqn:E; auto. apply N.eqb_eq in E. subst. reflexivity.
Qed.

Lemma keys_with_In : forall p m t, NoDup (map fst m) ->
  (In t (keys_with p m) <-> exists c, tget m t = Some c /\ p c = true).
Proof.
  intros p m t Hn. unfold keys_with. rewrite in_map_iff. split.
  - intros [[u c] [E H]]. cbn in E; subst. apply filter_In in H. destruct H as [H Hp]. exists c.
    split; auto. apply In_tget; auto.
  - intros [c [H Hp]]. exists (t, c). split; auto. apply filter_In. split; auto. apply tget_In; auto.
Qed.

Lemma tabs_of_In : forall m t, NoDup (map fst m) -> (In t (tabs_of m) <-> tget m t = Some CTab).
Proof.
  intros m t Hn. unfold tabs_of. rewrite keys_with_In by auto. split.
  - intros [c [H Hp]]. destruct c; try discriminate. auto.
  - intros H0. exists CTab. auto.
Qed.

Lemma jkind_eqb_eq : forall a b, jkind_eqb a b = true <-> a = b.
Proof. destruct a, b; cbn; split; congruence. Qed.

Lemma jkind_eqb_refl : forall a, jkind_eqb a a = true.
Proof. destruct a; reflexivity. Qed.

Lemma jkind_eqb_neq : forall a b, jkind_eqb a b = false <-> a <> b.
Proof. destruct a, b; cbn; split; congruence. Qed.

Definition IN (nx jr : N) (mn fz : option N) (m : list (N * tclass)) (pn : list N) : Prop :=
  jr < nx /\ (forall x, mn = Some x -> x < nx) /\ (forall z, fz = Some z -> z < jr) /\
  (forall t c, tget m t = Some c -> t < nx /\ t <> jr /\ mn <> Some t /\ fz <> Some t) /\
  (forall t, In t pn -> t < nx).

Definition IH (hd : list (list N)) (m : list (N * tclass)) : Prop :=
  forall h t, In h hd -> In t h -> tget m t = Some CTab \/ tget m t = Some CObs.

Definition IP (pn : list N) (m : list (N * tclass)) : Prop :=
  forall t, In t pn -> forall k, tget m t <> Some (CCur k) /\ (k <> KTxn -> tget m t <> Some (COut k)).

Definition IJ (s : st) : Prop :=
  forall k, j_on (getjob k s) = false ->
  forall t, tget (tb s) t <> Some (COut k) /\ tget (tb s) t <> Some (CCur k).

Definition IV1 (s : st) : Prop :=
  forall v t c, In v (views s) -> In t (v_tabs v) -> tget (tb s) t = Some c ->
  c = CTab \/ exists k, c = COut k /\ j_cfail (getjob k s) = true.

Definition IV2 (s : st) : Prop :=
  mfailed s = false -> exists v, views s = [v] /\ forall t, In t (v_tabs v) <-> tget (tb s) t = Some CTab.

Definition IV3 (vs : list view) : Prop := forall v, In v vs -> v_prev v = None.
Definition IV4 (vs : list view) (mn : option N) : Prop := forall v, In v vs -> mn = Some (v_man v).
Definition IV5 (vs : list view) (jr sj : N) : Prop := (forall v, In v vs -> v_jnum v <= jr) /\ sj <= jr.
Definition IV6 (fd : bool) (vs : list view) (jr sj : N) : Prop :=
  fd = true -> (forall v, In v vs -> v_jnum v = jr) /\ sj = jr.
Definition view_wf (v : view) : Prop := v_man v < v_next v /\ forall t, In t (v_tabs v) -> t < v_next v.
Definition IV7 (vs : list view) (nx : N) : Prop :=
  forall v, In v vs -> view_wf v /\ forall t, In t (v_tabs v) -> t < nx.
Definition IT (tr : list (fd * bool)) : Prop := forall f b, In (f, b) tr -> b = false \/ f = (FJournal, 0).

Record Inv (s : st) : Prop := {
  i_fl : NoDup (files s);
  i_k : NoDup (map fst (tb s));
  i_n : IN (next s) (journal s) (man s) (frozen s) (tb s) (pins s);
  i_h : IH (held s) (tb s);
  i_p : IP (pins s) (tb s);
  i_j : IJ s;
  i_v1 : IV1 s;
  i_v2 : IV2 s;
  i_v3 : IV3 (views s);
  i_v4 : IV4 (views s) (man s);
  i_v5 : IV5 (views s) (journal s) (sjnum s);
  i_v6 : IV6 (fdone s) (views s) (journal s) (sjnum s);
  i_v7 : IV7 (views s) (next s);
  i_t : IT (trace s);
  i_o : opened s = true }.

Record InvC (s : st) : Prop := {
  c_fl : NoDup (files s);
  c_v : forall v, In v (views s) -> view_wf v;
  c_t : IT (trace s);
  c_o : opened s = false }.

Definition Good (s : st) : Prop := if opened s then Inv s else InvC s.

Lemma needed_table_false : forall s t,
  NoDup (map fst (tb s)) ->
  tget (tb s) t <> Some CTab ->
  (forall h, In h (held s) -> ~ In t h) ->
  (forall v, In v (views s) -> ~ In t (v_tabs v)) ->
  ~ In t (pins s) ->
  needed s (FTable, t) = false.
Proof.
  intros s t Hk Ht Hh Hv Hp. cbn.
  repeat rewrite orb_false_iff. repeat split.
  - apply nmem_false. rewrite tabs_of_In; auto.
  - apply not_true_is_false. intro E. apply existsb_exists in E. destruct E as [h [Hin E]].
    apply nmem_In in E. apply (Hh h); auto.
  - apply not_true_is_false. intro E. apply existsb_exists in E. destruct E as [v [Hin E]].
    apply nmem_In in E. apply (Hv v); auto.
  - apply nmem_false; auto.
Qed.

Local Arguments tset : simpl never.
Local Arguments nmem : simpl never.

Lemma IT_cons : forall tr f b, IT tr -> (b = false \/ f = (FJournal, 0)) -> IT ((f, b) :: tr).
Proof. intros tr f b H Hb g c [E|Hin]; [inversion E; subst; auto | apply (H g c); auto]. Qed.

(* one Remove call logs the verdict, then changes at most the listing and the residue *)
Lemma do_rm_form : forall f ok why s, exists fl r,
  fst (do_rm f ok why s) = set_residue r (set_files fl (set_trace ((f, needed s f) :: trace s) s)) /\
  (fl = files s \/ fl = fdel (files s) f).
Proof.
  intros. unfold do_rm.
  destruct (fmem (files s) f); [destruct ok|]; cbn [fst]; eexists _, _; (split; [reflexivity | cbn; auto]).
Qed.

Lemma getjob_do_rm : forall k f ok why s, getjob k (fst (do_rm f ok why s)) = getjob k s.
Proof. intros. destruct (do_rm_form f ok why s) as (fl & r & -> & _). destruct k; reflexivity. Qed.

Lemma set_files_Inv : forall s x, Inv s -> NoDup x -> Inv (set_files x s).
Proof. intros s x H Hx. constructor; cbn; try apply H. auto. Qed.

Lemma set_residue_Inv : forall s x, Inv s -> Inv (set_residue x s).
Proof. intros s x H. constructor; cbn; apply H. Qed.

Lemma set_trace_Inv : forall s x, Inv s -> IT x -> Inv (set_trace x s).
Proof. intros s x H Hx. constructor; cbn; try apply H. auto. Qed.

(* a Remove call keeps the invariant, provided the file is not needed at that moment *)
Lemma do_rm_Inv : forall f ok why s, Inv s -> (needed s f = false \/ f = (FJournal, 0)) ->
  Inv (fst (do_rm f ok why s)).
Proof.
  intros f ok why s H Hn. destruct (do_rm_form f ok why s) as (fl & r & -> & Hfl).
  apply set_residue_Inv, set_files_Inv.
  - apply set_trace_Inv; auto. apply IT_cons; auto. apply (i_t s H).
  - destruct Hfl as [->| ->]; [|apply fdel_NoDup]; apply (i_fl s H).
Qed.

Lemma getjob_set_tb : forall k x s, getjob k (set_tb x s) = getjob k s.
Proof. destruct k; reflexivity. Qed.

(* a table that is in no version, no view and held by no reader leaves the map *)
Lemma del_table_Inv : forall s t c, Inv s ->
  tget (tb s) t = Some c -> c <> CTab ->
  (forall h, In h (held s) -> ~ In t h) ->
  (forall v, In v (views s) -> ~ In t (v_tabs v)) ->
  ~ In t (pins s) ->
  Inv (set_tb (tdel (tb s) t) s) /\ needed (set_tb (tdel (tb s) t) s) (FTable, t) = false.
Proof.
  intros s t c H Hc Hnt Hh Hv Hp.
  assert (Hget : forall u, tget (tdel (tb s) t) u = if t =? u then None else tget (tb s) u) by (intros; apply tget_tdel).
  assert (Hsub : forall u d, tget (tdel (tb s) t) u = Some d -> tget (tb s) u = Some d /\ u <> t).
  { intros u d. rewrite Hget. destruct (N.eqb_spec t u); [discriminate|]. intros; split; auto. }
  split.
  - constructor; cbn.
    + apply (i_fl s H).
    + apply tdel_NoDup, (i_k s H).
    + destruct (i_n s H) as (A&B&C&D&E). split; [|split; [|split; [|split]]]; auto.
      intros u d Hu. apply Hsub in Hu. destruct Hu as [Hu _]. apply (D u d Hu).
    + intros h u Hin Hu. rewrite Hget. destruct (N.eqb_spec t u) as [->|].
      * exfalso. apply (Hh h); auto.
      * apply (i_h s H h u); auto.
    + intros u Hu k. rewrite Hget. destruct (N.eqb_spec t u); [split; [discriminate | intros; discriminate]|].
      apply (i_p s H u Hu k).
    + intros k. rewrite getjob_set_tb. cbn. intros Hoff u. rewrite Hget.
      destruct (N.eqb_spec t u); [split; discriminate|]. apply (i_j s H k Hoff u).
    + intros v u d. cbn. intros Hin Hu Hd. apply Hsub in Hd. destruct Hd as [Hd _].
      destruct (i_v1 s H v u d Hin Hu Hd) as [|[k [Ek Hk]]]; auto. right. exists k. rewrite getjob_set_tb. auto.
    + intros Hm. cbn in Hm. destruct (i_v2 s H Hm) as [v [Ev Hiff]]. exists v. cbn. split; auto.
      intros u. rewrite Hget, Hiff. destruct (N.eqb_spec t u) as [->|]; [|tauto].
      split; [|discriminate]. intro Hu. exfalso. apply (Hv v); [rewrite Ev; left; auto|]. apply Hiff; auto.
    + apply (i_v3 s H).
    + apply (i_v4 s H).
    + apply (i_v5 s H).
    + apply (i_v6 s H).
    + apply (i_v7 s H).
    + apply (i_t s H).
    + apply (i_o s H).
  - apply needed_table_false; cbn; auto.
    + apply tdel_NoDup, (i_k s H).
    + rewrite tget_tdel_eq. discriminate.
Qed.

(* reuseFileNum of a number nothing refers to any more *)
Lemma reuse_Inv : forall s t, Inv s ->
  tget (tb s) t = None -> t <> journal s -> man s <> Some t -> frozen s <> Some t -> ~ In t (pins s) ->
  (forall v u, In v (views s) -> In u (v_tabs v) -> u <> t) ->
  Inv (reuse_num t s).
Proof.
  intros s t H Hg Hj Hm Hf Hp Hv. unfold reuse_num. destruct (N.eqb_spec (next s) (t + 1)) as [E|E]; auto.
  constructor; cbn; try apply H.
  - destruct (i_n s H) as (A&B&C&D&F). split; [|split; [|split; [|split]]]; auto.
    + lia.
    + intros x Hx. specialize (B x Hx). assert (x <> t) by congruence. lia.
    + intros u d Hu. destruct (D u d Hu) as (D1&D2&D3&D4). assert (u <> t) by (intro; subst; congruence).
      repeat split; auto. lia.
    + intros u Hu. specialize (F u Hu). assert (u <> t) by (intro; subst; auto). lia.
  - intros v Hin. destruct (i_v7 s H v Hin) as [W L]. split; auto.
    intros u Hu. specialize (L u Hu). specialize (Hv v u Hin Hu). lia.
Qed.

(* a table leaves the map, Remove is called on its file, and the number is or is not given back (delFunc and
   tWriter.drop decide that differently) *)
Lemma del_rm_Inv : forall s t c ok (b : bool), Inv s ->
  tget (tb s) t = Some c -> c <> CTab ->
  (forall h, In h (held s) -> ~ In t h) ->
  (forall v, In v (views s) -> ~ In t (v_tabs v)) ->
  ~ In t (pins s) ->
  let s2 := fst (do_rm (FTable, t) ok RFailed (set_tb (tdel (tb s) t) s)) in
  Inv (if b then reuse_num t s2 else s2).
Proof.
  intros s t c ok b H Hc Hnt Hh Hv Hp.
  destruct (del_table_Inv s t c H Hc Hnt Hh Hv Hp) as [H1 Hn].
  set (s1 := set_tb (tdel (tb s) t) s) in *.
  pose proof (do_rm_Inv (FTable, t) ok RFailed s1 H1 (or_introl Hn)) as H2.
  destruct (do_rm_form (FTable, t) ok RFailed s1) as (fl & r & E & _). rewrite E in *. cbv zeta.
  destruct b; auto.
  destruct (i_n s H) as (_&_&_&D&_). destruct (D t c Hc) as (_&D2&D3&D4).
  apply reuse_Inv; cbn; auto.
  - apply tget_tdel_eq.
  - intros v u Hin Hu ->. apply (Hv v); auto.
Qed.

Lemma del_func_Inv : forall s t c ok, Inv s ->
  tget (tb s) t = Some c -> c <> CTab ->
  (forall h, In h (held s) -> ~ In t h) ->
  (forall v, In v (views s) -> ~ In t (v_tabs v)) ->
  ~ In t (pins s) ->
  Inv (del_func t ok s).
Proof. intros s t c ok H Hc Hnt Hh Hv Hp. exact (del_rm_Inv s t c ok _ H Hc Hnt Hh Hv Hp). Qed.

Lemma bump_next_Inv : forall s n, Inv s -> next s <= n -> Inv (set_next n s).
Proof.
  intros s n H Hle. constructor; cbn; try apply H.
  - destruct (i_n s H) as (A&B&C&D&F). split; [|split; [|split; [|split]]]; auto.
    + lia.
    + intros x Hx. specialize (B x Hx). lia.
    + intros u d Hu. destruct (D u d Hu) as (D1&D2&D3&D4). repeat split; auto. lia.
    + intros u Hu. specialize (F u Hu). lia.
  - intros v Hin. destruct (i_v7 s H v Hin) as [W L]. split; auto. intros u Hu. specialize (L u Hu). lia.
Qed.

(* a table outside every version and view gets a class other than CTab *)
Lemma set_class_Inv : forall s t c', Inv s ->
  t < next s -> t <> journal s -> man s <> Some t -> frozen s <> Some t ->
  (forall h, In h (held s) -> ~ In t h) ->
  (forall v, In v (views s) -> ~ In t (v_tabs v)) ->
  c' <> CTab ->
  (forall k, c' = CCur k \/ c' = COut k -> j_on (getjob k s) = true) ->
  (In t (pins s) -> forall k, c' <> CCur k /\ (k <> KTxn -> c' <> COut k)) ->
  Inv (set_tb (tset (tb s) t c') s).
Proof.
  intros s t c' H L1 L2 L3 L4 Hh Hv Hnt Hon Hpin.
  assert (Hget : forall u, tget (tset (tb s) t c') u = if t =? u then Some c' else tget (tb s) u) by (intros; apply tget_tset).
  constructor; cbn; try apply H.
  - apply tset_NoDup, (i_k s H).
  - destruct (i_n s H) as (A&B&C&D&F). split; [|split; [|split; [|split]]]; auto.
    intros u d. rewrite Hget. destruct (N.eqb_spec t u) as [ <- | ]; [intros _; repeat split; auto | intros Hd; apply (D u d Hd)].
  - intros h u Hin Hu. rewrite Hget. destruct (N.eqb_spec t u) as [ <- | ]; [exfalso; apply (Hh h); auto|].
    apply (i_h s H h u); auto.
  - intros u Hu k. rewrite Hget. destruct (N.eqb_spec t u) as [ <- | ]; [|apply (i_p s H u Hu k)].
    destruct (Hpin Hu k) as [P1 P2]. split; [congruence|]. intros Hk E. apply (P2 Hk). congruence.
  - intros k. rewrite getjob_set_tb. cbn. intros Hoff u. rewrite Hget.
    destruct (N.eqb_spec t u) as [ <- | ]; [|apply (i_j s H k Hoff u)].
    split; intro E; inversion E; subst; rewrite Hon in Hoff; auto; discriminate.
  - intros v u d Hin Hu. cbn. rewrite Hget. destruct (N.eqb_spec t u) as [ <- | ]; [exfalso; apply (Hv v); auto|].
    intros Hd. destruct (i_v1 s H v u d Hin Hu Hd) as [|[k [Ek Hk]]]; auto. right. exists k. rewrite getjob_set_tb. auto.
  - intros Hm. cbn in Hm. destruct (i_v2 s H Hm) as [v [Ev Hiff]]. exists v. cbn. split; auto.
    intros u. rewrite Hget, Hiff. destruct (N.eqb_spec t u) as [ <- | ]; [|tauto].
    split; [|congruence]. intro Hu. exfalso. apply (Hv v); [rewrite Ev; left; auto|]. apply Hiff; auto.
Qed.

Lemma cur_of_Some : forall k s t, NoDup (map fst (tb s)) -> cur_of k s = Some t -> tget (tb s) t = Some (CCur k).
Proof.
  intros k s t Hn. unfold cur_of. destruct (keys_with (is_cur k) (tb s)) as [|u l] eqn:E; [discriminate|].
  intros H; inversion H; subst.
  assert (Hin : In t (keys_with (is_cur k) (tb s))) by (rewrite E; left; auto).
  apply keys_with_In in Hin; auto. destruct Hin as [c [Hc Hp]]. destruct c; try discriminate.
  cbn in Hp. apply jkind_eqb_eq in Hp. subst. auto.
Qed.

Lemma cur_of_None : forall k s t, NoDup (map fst (tb s)) -> cur_of k s = None -> tget (tb s) t <> Some (CCur k).
Proof.
  intros k s t Hn. unfold cur_of. destruct (keys_with (is_cur k) (tb s)) as [|u l] eqn:E; [|discriminate].
  intros _ Hc. assert (Hin : In t (keys_with (is_cur k) (tb s))).
  { apply keys_with_In; auto. exists (CCur k). split; auto. cbn. apply jkind_eqb_refl. }
  rewrite E in Hin. destruct Hin.
Qed.

Lemma outs_In : forall k m t, NoDup (map fst m) -> (In t (keys_with (is_out k) m) <-> tget m t = Some (COut k)).
Proof.
  intros k m t Hn. rewrite keys_with_In by auto. split.
  - intros [c [Hc Hp]]. destruct c; try discriminate. cbn in Hp. apply jkind_eqb_eq in Hp. subst. auto.
  - intros H. exists (COut k). split; auto. cbn. apply jkind_eqb_refl.
Qed.

Lemma nremove1_In : forall l x y, In y (nremove1 l x) -> In y l.
Proof.
  induction l as [|z l IH]; cbn; intros x y H; auto.
  destruct (x =? z); [right; auto|]. destruct H; [left; auto | right; eapply IH; eauto].
Qed.

Lemma remove_nth_In : forall (A : Type) i (l : list A) y, In y (remove_nth i l) -> In y l.
Proof.
  induction i; destruct l; cbn; intros y H; auto. destruct H; [left; auto | right; auto].
Qed.

Lemma getjob_setjob_eq : forall k j s, getjob k (setjob k j s) = j.
Proof. destruct k; reflexivity. Qed.

Lemma getjob_setjob_neq : forall k k' j s, k <> k' -> getjob k' (setjob k j s) = getjob k' s.
Proof. destruct k, k'; intros; try congruence; reflexivity. Qed.

(* replacing a job record: the job-related parts of the invariant under the new record *)
Lemma setjob_Inv : forall k j s, Inv s ->
  (j_on j = false -> forall t, tget (tb s) t <> Some (COut k) /\ tget (tb s) t <> Some (CCur k)) ->
  (j_cfail j = false -> forall v t, In v (views s) -> In t (v_tabs v) -> tget (tb s) t <> Some (COut k)) ->
  Inv (setjob k j s).
Proof.
  intros k j s H Hon Hcf.
  assert (Et : tb (setjob k j s) = tb s) by (destruct k; reflexivity).
  assert (Ev : views (setjob k j s) = views s) by (destruct k; reflexivity).
  constructor; try (destruct k; cbn; apply H).
  - intros k'. rewrite Et. destruct (jkind_eqb k k') eqn:Ek.
    + apply jkind_eqb_eq in Ek. subst k'. rewrite getjob_setjob_eq. auto.
    + apply jkind_eqb_neq in Ek. rewrite getjob_setjob_neq by auto. apply (i_j s H).
  - intros v t c. rewrite Ev, Et. intros Hv Ht Hc.
    destruct (i_v1 s H v t c Hv Ht Hc) as [|[k' [Ec Hk]]]; auto. right. exists k'. split; auto.
    destruct (jkind_eqb k k') eqn:Ek.
    + apply jkind_eqb_eq in Ek. subst k'. rewrite getjob_setjob_eq.
      destruct (j_cfail j) eqn:Ej; auto. exfalso. apply (Hcf eq_refl v t Hv Ht). congruence.
    + apply jkind_eqb_neq in Ek. rewrite getjob_setjob_neq by auto. auto.
Qed.

Lemma set_pins_Inv : forall s x, Inv s ->
  (forall t, In t x -> t < next s) -> IP x (tb s) -> Inv (set_pins x s).
Proof.
  intros s x H Hlt Hp. constructor; cbn; try apply H; auto.
  destruct (i_n s H) as (A&B&C&D&F). split; [|split; [|split; [|split]]]; auto.
Qed.

Lemma set_held_Inv : forall s x, Inv s -> IH x (tb s) -> Inv (set_held x s).
Proof. intros s x H Hh. constructor; cbn; try apply H; auto. Qed.

Lemma held_class : forall s t h, Inv s -> In h (held s) -> In t h ->
  tget (tb s) t = Some CTab \/ tget (tb s) t = Some CObs.
Proof. intros. eapply (i_h s H); eauto. Qed.

Lemma not_held : forall s t c, Inv s -> tget (tb s) t = Some c -> c <> CTab -> c <> CObs ->
  forall h, In h (held s) -> ~ In t h.
Proof. intros s t c H Hc H1 H2 h Hh Ht. destruct (held_class s t h H Hh Ht); congruence. Qed.

Lemma not_viewed : forall s t c, Inv s -> tget (tb s) t = Some c -> c <> CTab ->
  (forall k, c = COut k -> j_cfail (getjob k s) = false) ->
  forall v, In v (views s) -> ~ In t (v_tabs v).
Proof.
  intros s t c H Hc H1 H2 v Hv Ht. destruct (i_v1 s H v t c Hv Ht Hc) as [|[k [E Hk]]]; [congruence|].
  rewrite (H2 k E) in Hk. discriminate.
Qed.

Lemma step_pin : forall s t s', Inv s -> step s (OPin t) = Some s' -> Inv s'.
Proof.
  intros s t s' H. cbn. destruct (opened s); cbn; [|discriminate].
  destruct (tget (tb s) t) as [c|] eqn:Ec; [|discriminate].
  assert (Hlt : t < next s) by (destruct (i_n s H) as (_&_&_&D&_); apply (D t c Ec)).
  assert (Hgo : (c = CTab \/ c = CObs \/ c = COut KTxn) -> Inv (set_pins (t :: pins s) s)).
  { intros Hc. apply set_pins_Inv; auto.
    - intros u [ <- | Hu]; auto. destruct (i_n s H) as (_&_&_&_&F). auto.
    - intros u [ <- | Hu] k; [|apply (i_p s H u Hu k)]. rewrite Ec.
      destruct Hc as [ -> | [ -> | -> ] ]; split; try congruence. }
  destruct c as [| | |k|k]; try discriminate.
  - intros E; inversion E; subst; apply Hgo; auto.
  - destruct (existsb _ _); [|discriminate]. intros E; inversion E; subst; apply Hgo; auto.
  - destruct k; try discriminate. intros E; inversion E; subst; apply Hgo; auto.
Qed.

Lemma step_unpin : forall s t ok s', Inv s -> step s (OUnpin t ok) = Some s' -> Inv s'.
Proof.
  intros s t ok s' H. cbn. destruct (opened s); cbn; [|discriminate].
  destruct (nmem (pins s) t) eqn:Ep; [|discriminate].
  assert (H1 : Inv (set_pins (nremove1 (pins s) t) s)).
  { apply set_pins_Inv; auto.
    - intros u Hu. apply nremove1_In in Hu. destruct (i_n s H) as (_&_&_&_&F). auto.
    - intros u Hu. apply nremove1_In in Hu. apply (i_p s H u Hu). }
  cbn. destruct (tget (tb s) t) as [c|] eqn:Ec; [|intros E; inversion E; subst; auto].
  destruct c; try (intros E; inversion E; subst; auto; fail).
  destruct (nmem (nremove1 (pins s) t) t) eqn:Ep2; intros E; inversion E; subst; auto.
  apply (del_func_Inv _ t CPend); auto; cbn.
  - discriminate.
  - apply (not_held s t CPend); auto; discriminate.
  - apply (not_viewed s t CPend); auto; discriminate.
  - apply nmem_false; auto.
Qed.

Lemma step_acquire : forall s s', Inv s -> step s OAcquire = Some s' -> Inv s'.
Proof.
  intros s s' H. cbn. destruct (opened s); [|discriminate]. intros E; inversion E; subst.
  apply set_held_Inv; auto. intros h t [ <- | Hh] Ht; [|eapply (i_h s H); eauto].
  left. apply tabs_of_In; auto. apply (i_k s H).
Qed.

Lemma step_release : forall s i s', Inv s -> step s (ORelease i) = Some s' -> Inv s'.
Proof.
  intros s i s' H. cbn. destruct (opened s && _); [|discriminate]. intros E; inversion E; subst.
  apply set_held_Inv; auto. intros h t Hh Ht. apply remove_nth_In in Hh. eapply (i_h s H); eauto.
Qed.

Lemma step_begin : forall s k dels s', Inv s -> step s (OBegin k dels) = Some s' -> Inv s'.
Proof.
  intros s k dels s' H. cbn. destruct (opened s); cbn; [|discriminate].
  destruct (j_on (getjob k s)) eqn:Eon; cbn; [discriminate|].
  destruct (match k with KFlush => _ | KComp => _ | KTxn => _ end); [|discriminate].
  intros E; inversion E; subst. apply setjob_Inv; auto; cbn; [discriminate|].
  intros _ v t _ _. apply (i_j s H k Eon t).
Qed.

Lemma step_finish : forall s k s', Inv s -> step s (OFinish k) = Some s' -> Inv s'.
Proof.
  intros s k s' H. cbn. destruct (cur_of k s) as [t|] eqn:Ec; [|discriminate].
  destruct (opened s); [|discriminate]. intros E; inversion E; subst.
  apply cur_of_Some in Ec; [|apply (i_k s H)].
  destruct (i_n s H) as (_&_&_&D&_). destruct (D t _ Ec) as (D1&D2&D3&D4).
  assert (Hon : j_on (getjob k s) = true).
  { destruct (j_on (getjob k s)) eqn:Eon; auto. exfalso. apply (i_j s H k Eon t). auto. }
  apply set_class_Inv; auto.
  - apply (not_held s t (CCur k)); auto; discriminate.
  - apply (not_viewed s t (CCur k)); auto; discriminate.
  - discriminate.
  - intros k' [E'|E']; inversion E'; subst; auto.
  - intros Hp. exfalso. destruct (i_p s H t Hp k) as [P _]. apply P; auto.
Qed.

Lemma step_create : forall s k ok s', Inv s -> step s (OCreate k ok) = Some s' -> Inv s'.
Proof.
  intros s k ok s' H. cbn. destruct (opened s); cbn; [|discriminate].
  destruct (j_on (getjob k s)) eqn:Eon; cbn; [|discriminate].
  destruct (negb (j_cfail (getjob k s)) || jkind_eqb k KTxn); cbn; [|discriminate].
  destruct (cur_of k s); [discriminate|].
  assert (H1 : Inv (set_next (next s + 1) s)) by (apply bump_next_Inv; auto; lia).
  destruct ok; intros E; inversion E; subst; auto.
  set (t := next s) in *.
  assert (Hfresh : tget (tb s) t = None).
  { destruct (tget (tb s) t) eqn:Eg; auto. destruct (i_n s H) as (_&_&_&D&_). destruct (D t _ Eg). unfold t in *. lia. }
  destruct (i_n s H) as (A&B&C&D&F).
  assert (H2 : Inv (set_residue (filter (fun x => negb (fd_eqb (FTable, t) (fst x))) (residue (set_next (t + 1) s)))
                     (set_files (fadd (files (set_next (t + 1) s)) (FTable, t)) (set_next (t + 1) s)))).
  { apply set_residue_Inv, set_files_Inv; auto. cbn. apply fadd_NoDup, (i_fl s H). }
  apply (set_class_Inv _ t (CCur k)) in H2; cbn in *; auto.
  - unfold t. lia.
  - unfold t. lia.
  - intros E1. specialize (B t E1). unfold t in B. lia.
  - intros E1. specialize (C t E1). unfold t in *. lia.
  - intros h Hh Ht. destruct (i_h s H h t Hh Ht); congruence.
  - intros v Hv Ht. destruct (i_v7 s H v Hv) as [_ L]. specialize (L t Ht). unfold t in L. lia.
  - discriminate.
  - intros k' [E'|E']; inversion E'; subst. destruct k'; auto.
  - intros Hp. specialize (F t Hp). unfold t in F. lia.
Qed.

Lemma step_drop : forall s k ok s', Inv s -> step s (ODrop k ok) = Some s' -> Inv s'.
Proof.
  intros s k ok s' H. cbn. destruct (cur_of k s) as [t|] eqn:Ec; [|discriminate].
  destruct (opened s); [|discriminate].
  apply cur_of_Some in Ec; [|apply (i_k s H)].
  assert (Hh : forall h, In h (held s) -> ~ In t h) by (apply (not_held s t (CCur k)); auto; discriminate).
  assert (Hv : forall v, In v (views s) -> ~ In t (v_tabs v)) by (apply (not_viewed s t (CCur k)); auto; discriminate).
  assert (Hp : ~ In t (pins s)) by (intro Hp; destruct (i_p s H t Hp k) as [P _]; apply P; auto).
  pose proof (fun b => del_rm_Inv s t (CCur k) ok b H Ec ltac:(discriminate) Hh Hv Hp) as HI. cbv zeta in HI.
  destruct (do_rm (FTable, t) ok RFailed (set_tb (tdel (tb s) t) s)) as [s2 done]. cbn [fst] in HI.
  intros E; inversion E; subst. apply HI.
Qed.

Lemma step_rotate : forall s ok empty s', Inv s -> step s (ORotate ok empty) = Some s' -> Inv s'.
Proof.
  intros s ok empty s' H. cbn. destruct (opened s); cbn; [|discriminate].
  destruct (negb (j_on (jt s))); cbn; [|discriminate].
  destruct (frozen s) eqn:Ef; [discriminate|].
  destruct (i_n s H) as (A&B&C&D&F).
  destruct ok; intros E; inversion E; subst; clear E.
  - constructor; cbn; try apply H.
    + apply fadd_NoDup, (i_fl s H).
    + split; [|split; [|split; [|split]]].
      * lia.
      * intros x Hx. specialize (B x Hx). lia.
      * intros z Hz. inversion Hz; subst. auto.
      * intros t c Hc. destruct (D t c Hc) as (D1&D2&D3&D4). repeat split; auto; try lia. congruence.
      * intros t Ht. specialize (F t Ht). lia.
    + destruct (i_v5 s H) as [V S]. split; [intros v Hv; specialize (V v Hv); lia | lia].
    + intros E; discriminate.
    + intros v Hv. destruct (i_v7 s H v Hv) as [W L]. split; auto. intros t Ht. specialize (L t Ht). lia.
  - unfold reuse_num. cbn. rewrite N.eqb_refl.
    assert (E : set_next (next s) (set_next (next s + 1) s) = s) by (destruct s; reflexivity).
    rewrite E. auto.
Qed.

Lemma jsel_false : forall jn n, n < jn -> n <> 0 -> jsel jn 0 n = false.
Proof.
  intros. unfold jsel. apply orb_false_iff. split; [apply N.leb_gt; auto | apply N.eqb_neq; auto].
Qed.

Lemma needed_journal_old : forall s n, IV3 (views s) ->
  (forall v, In v (views s) -> n < v_jnum v) -> n <> 0 -> needed s (FJournal, n) = false.
Proof.
  intros s n H3 Hv Hn. unfold needed. cbn [fst snd]. apply andb_false_iff. left.
  apply not_true_is_false. intro E. apply existsb_exists in E. destruct E as [v [Hin E]].
  unfold pjn in E. rewrite (H3 v Hin) in E. rewrite jsel_false in E; auto. discriminate.
Qed.

Lemma step_dropfrozen : forall s ok s', Inv s -> step s (ODropFrozen ok) = Some s' -> Inv s'.
Proof.
  intros s ok s' H. cbn. destruct (frozen s) as [z|] eqn:Ef; [|discriminate].
  destruct (opened s); cbn; [|discriminate].
  destruct (fdone s || fempty s) eqn:Eg; [|discriminate].
  intros E; inversion E; subst; clear E.
  assert (Hn : needed s (FJournal, z) = false \/ (FJournal, z) = (FJournal, 0)).
  { destruct (N.eqb_spec z 0) as [->|Hz]; auto. left.
    destruct (fempty s) eqn:Ee.
    - unfold needed. cbn [fst snd]. rewrite Ee, Ef, N.eqb_refl. cbn. apply andb_false_r.
    - rewrite orb_false_r in Eg. destruct (i_v6 s H Eg) as [V _].
      apply needed_journal_old; auto; [apply (i_v3 s H)|].
      intros v Hv. rewrite (V v Hv). destruct (i_n s H) as (_&_&C&_). auto. }
  pose proof (do_rm_Inv (FJournal, z) ok RFailed s H Hn) as H2.
  set (s2 := fst (do_rm (FJournal, z) ok RFailed s)) in *.
  constructor; cbn; try apply H2.
  - destruct (i_n s2 H2) as (A&B&C&D&F). split; [|split; [|split; [|split]]]; auto.
    + intros x Hx; discriminate.
    + intros t c Hc. destruct (D t c Hc) as (D1&D2&D3&D4). repeat split; auto. discriminate.
  - intros E; discriminate.
Qed.

Lemma tops_remove_Inv : forall s t c ok, Inv s ->
  tget (tb s) t = Some c -> c <> CTab -> (forall k, c <> CCur k) ->
  (forall h, In h (held s) -> ~ In t h) ->
  (forall v, In v (views s) -> ~ In t (v_tabs v)) ->
  Inv (tops_remove t ok s).
Proof.
  intros s t c ok H Hc Hnt Hnc Hh Hv. unfold tops_remove.
  destruct (nmem (pins s) t) eqn:Ep.
  - destruct (i_n s H) as (_&_&_&D&_). destruct (D t c Hc) as (D1&D2&D3&D4).
    apply set_class_Inv; auto; try discriminate.
    + intros k [E|E]; discriminate.
    + intros _ k. split; [discriminate | intros _; discriminate].
  - apply (del_func_Inv s t c); auto. apply nmem_false; auto.
Qed.

Lemma step_loopremove : forall s t ok s', Inv s -> step s (OLoopRemove t ok) = Some s' -> Inv s'.
Proof.
  intros s t ok s' H. cbn. destruct (opened s); cbn; [|discriminate].
  destruct (tget (tb s) t) as [c|] eqn:Ec; [|discriminate].
  destruct c; try discriminate. cbn.
  destruct (existsb (fun h => nmem h t) (held s)) eqn:Eh; [discriminate|].
  intros E; inversion E; subst. apply (tops_remove_Inv s t CObs); auto; try discriminate.
  - intros h Hh Ht. assert (existsb (fun h => nmem h t) (held s) = true); [|congruence].
    apply existsb_exists. exists h. split; auto. apply nmem_In; auto.
  - apply (not_viewed s t CObs); auto; discriminate.
Qed.

Lemma keys_with_NoDup : forall p m, NoDup (map fst m) -> NoDup (keys_with p m).
Proof. intros. unfold keys_with. apply (ListLemmas.NoDup_map_filter fst); auto. Qed.

(* tables that are in no version leave the map without a Remove call *)
Lemma drop_tables_Inv : forall s ts, Inv s ->
  (forall t, In t ts -> tget (tb s) t <> Some CTab /\ tget (tb s) t <> Some CObs) ->
  Inv (set_tb (filter (fun x => negb (nmem ts (fst x))) (tb s)) s).
Proof.
  intros s ts H Hts.
  assert (Hget : forall u, tget (filter (fun x => negb (nmem ts (fst x))) (tb s)) u =
                           if negb (nmem ts u) then tget (tb s) u else None).
  { intros u. apply (tget_filter_keys (fun t => negb (nmem ts t))). }
  assert (Hsub : forall u d, tget (filter (fun x => negb (nmem ts (fst x))) (tb s)) u = Some d -> tget (tb s) u = Some d).
  { intros u d. rewrite Hget. destruct (negb (nmem ts u)); [auto | discriminate]. }
  assert (Hkeep : forall u, (tget (tb s) u = Some CTab \/ tget (tb s) u = Some CObs) ->
                            tget (filter (fun x => negb (nmem ts (fst x))) (tb s)) u = tget (tb s) u).
  { intros u Hu. rewrite Hget. destruct (nmem ts u) eqn:E; auto. apply nmem_In in E.
    destruct (Hts u E). destruct Hu; congruence. }
  constructor; cbn; try apply H.
  - apply (ListLemmas.NoDup_map_filter fst), (i_k s H).
  - destruct (i_n s H) as (A&B&C&D&F). split; [|split; [|split; [|split]]]; auto.
    intros u d Hu. apply (D u d (Hsub u d Hu)).
  - intros h u Hin Hu. rewrite Hkeep; [|apply (i_h s H h u); auto]. apply (i_h s H h u); auto.
  - intros u Hu k. rewrite Hget. destruct (negb (nmem ts u)); [apply (i_p s H u Hu k)|].
    split; [discriminate | intros; discriminate].
  - intros k. rewrite getjob_set_tb. cbn. intros Hoff u. rewrite Hget.
    destruct (negb (nmem ts u)); [apply (i_j s H k Hoff u) | split; discriminate].
  - intros v u d Hin Hu. cbn. intros Hd. apply Hsub in Hd.
    destruct (i_v1 s H v u d Hin Hu Hd) as [|[k [Ek Hk]]]; auto. right. exists k. rewrite getjob_set_tb. auto.
  - intros Hm. cbn in Hm. destruct (i_v2 s H Hm) as [v [Ev Hiff]]. exists v. cbn. split; auto.
    intros u. rewrite Hiff. split.
    + intros Hu. rewrite Hkeep; auto.
    + apply Hsub.
Qed.

Lemma orphan_Inv : forall s ts why, Inv s ->
  (forall t, In t ts -> tget (tb s) t <> Some CTab /\ tget (tb s) t <> Some CObs) ->
  Inv (orphan ts why s).
Proof. intros. unfold orphan. apply set_residue_Inv, drop_tables_Inv; auto. Qed.

Lemma orphan_tget : forall s ts why u,
  tget (tb (orphan ts why s)) u = if nmem ts u then None else tget (tb s) u.
Proof.
  intros. unfold orphan. cbn. rewrite (tget_filter_keys (fun t => negb (nmem ts t))).
  destruct (nmem ts u); reflexivity.
Qed.

Lemma orphan_getjob : forall s ts why k, getjob k (orphan ts why s) = getjob k s.
Proof. intros. unfold orphan. destruct k; reflexivity. Qed.

Lemma revert_seq_Inv : forall k ts bad s, Inv s -> k <> KTxn -> j_cfail (getjob k s) = false ->
  NoDup ts -> (forall t, In t ts -> tget (tb s) t = Some (COut k)) ->
  Inv (revert_seq ts bad s) /\
  (forall u, tget (tb (revert_seq ts bad s)) u = if nmem ts u then None else tget (tb s) u) /\
  (forall k', getjob k' (revert_seq ts bad s) = getjob k' s).
Proof.
  intros k ts bad. induction ts as [|t ts IH]; intros s H Hk Hcf Hnd Hts; cbn.
  - split; [auto | split; intros; reflexivity].
  - inversion Hnd as [|x l Hnotin Hnd']; subst.
    assert (Ec : tget (tb s) t = Some (COut k)) by (apply Hts; left; auto).
    assert (Hh : forall h, In h (held s) -> ~ In t h) by (apply (not_held s t (COut k)); auto; discriminate).
    assert (Hv : forall v, In v (views s) -> ~ In t (v_tabs v)).
    { apply (not_viewed s t (COut k)); auto; try discriminate. intros k' E. inversion E; subst; auto. }
    assert (Hp : ~ In t (pins s)).
    { intro Hp. destruct (i_p s H t Hp k) as [_ P]. apply (P Hk); auto. }
    destruct (del_table_Inv s t (COut k) H Ec ltac:(discriminate) Hh Hv Hp) as [H1 Hn].
    set (s1 := set_tb (tdel (tb s) t) s) in *.
    pose proof (do_rm_Inv (FTable, t) (negb (fmem bad (FTable, t))) RFailed s1 H1 (or_introl Hn)) as HI2.
    pose proof (fun k' => getjob_do_rm k' (FTable, t) (negb (fmem bad (FTable, t))) RFailed s1) as Hgj.
    destruct (do_rm_form (FTable, t) (negb (fmem bad (FTable, t))) RFailed s1) as (fl & r & E & _).
    destruct (do_rm (FTable, t) (negb (fmem bad (FTable, t))) RFailed s1) as [s2 ok]. cbn [fst snd] in *.
    assert (Htb2 : forall u, tget (tb s2) u = if t =? u then None else tget (tb s) u).
    { intros u. rewrite E. apply tget_tdel. }
    assert (Hrest : forall u, In u ts -> tget (tb s2) u = Some (COut k)).
    { intros u Hu. rewrite Htb2. destruct (N.eqb_spec t u) as [->|]; [contradiction|]. apply Hts; right; auto. }
    assert (Hnm : forall u, nmem (t :: ts) u = (t =? u) || nmem ts u).
    { intros u. unfold nmem. cbn. rewrite (N.eqb_sym u t). reflexivity. }
    destruct ok.
    + assert (Hcf2 : j_cfail (getjob k s2) = false) by (rewrite Hgj; subst s1; rewrite getjob_set_tb; auto).
      destruct (IH s2 HI2 Hk Hcf2 Hnd' Hrest) as (I1&I2&I3).
      split; [auto|]. split.
      * intros u. rewrite I2, Htb2, Hnm. destruct (t =? u), (nmem ts u); auto.
      * intros k'. rewrite I3, Hgj. subst s1. apply getjob_set_tb.
    + split; [|split].
      * apply orphan_Inv; auto. intros u Hu. rewrite (Hrest u Hu). split; discriminate.
      * intros u. rewrite orphan_tget, Htb2, Hnm. destruct (t =? u), (nmem ts u); auto.
      * intros k'. rewrite orphan_getjob, Hgj. subst s1. apply getjob_set_tb.
Qed.

Lemma step_revert : forall s k bad s', Inv s -> step s (ORevert k bad) = Some s' -> Inv s'.
Proof.
  intros s k bad s' H. cbn. destruct (opened s); cbn; [|discriminate].
  destruct (j_on (getjob k s)); cbn; [|discriminate].
  destruct (j_cfail (getjob k s)) eqn:Ecf; cbn; [discriminate|].
  destruct (jkind_eqb k KTxn) eqn:Ek; cbn; [discriminate|]. apply jkind_eqb_neq in Ek.
  destruct (cur_of k s) eqn:Ecur; [discriminate|].
  intros E; inversion E; subst; clear E.
  pose proof (i_k s H) as HK.
  destruct (revert_seq_Inv k (keys_with (is_out k) (tb s)) bad s H Ek Ecf (keys_with_NoDup _ _ HK)) as (I1&I2&I3).
  { intros t Ht. apply outs_In; auto. }
  apply setjob_Inv; auto.
  - intros _ t. rewrite I2. destruct (nmem (keys_with (is_out k) (tb s)) t) eqn:En; [split; discriminate|].
    split.
    + intro Hc. apply outs_In in Hc; auto. apply nmem_In in Hc. congruence.
    + apply cur_of_None; auto.
  - intros _ v t _ _. rewrite I2. destruct (nmem (keys_with (is_out k) (tb s)) t) eqn:En; [discriminate|].
    intro Hc. apply outs_In in Hc; auto. apply nmem_In in Hc. congruence.
Qed.

Lemma step_abandon : forall s k s', Inv s -> step s (OAbandon k) = Some s' -> Inv s'.
Proof.
  intros s k s' H. cbn. destruct (opened s); cbn; [|discriminate].
  destruct (j_on (getjob k s)); cbn; [|discriminate].
  destruct (jkind_eqb k KTxn) eqn:Ek; cbn; [discriminate|].
  destruct (cur_of k s) eqn:Ecur; [discriminate|].
  intros E; inversion E; subst; clear E.
  pose proof (i_k s H) as HK.
  apply setjob_Inv.
  - apply orphan_Inv; auto. intros t Ht. apply outs_In in Ht; auto. rewrite Ht. split; discriminate.
  - intros _ t. rewrite orphan_tget. destruct (nmem (keys_with (is_out k) (tb s)) t) eqn:En; [split; discriminate|].
    split.
    + intro Hc. apply outs_In in Hc; auto. apply nmem_In in Hc. congruence.
    + apply cur_of_None; auto.
  - intros _ v t _ _. rewrite orphan_tget. destruct (nmem (keys_with (is_out k) (tb s)) t) eqn:En; [discriminate|].
    intro Hc. apply outs_In in Hc; auto. apply nmem_In in Hc. congruence.
Qed.

Definition inst_f (ko : option jkind) (dels : list N) (t : N) (c : tclass) : tclass :=
  match c with
  | COut k' => match ko with Some k => if jkind_eqb k k' then CTab else c | None => c end
  | CTab => if nmem dels t then CObs else c
  | _ => c
  end.

Lemma install_tget : forall ko dels jn s t,
  tget (tb (install ko dels jn s)) t = option_map (inst_f ko dels t) (tget (tb s) t).
Proof. intros. unfold install. cbn. apply tget_retag. Qed.

Lemma install_eq : forall ko dels jn s,
  install ko dels jn s =
  set_sjnum (match jn with Some j => j | None => sjnum s end) (set_tb (tb (install ko dels jn s)) s).
Proof. reflexivity. Qed.

Lemma install_keys : forall ko dels jn s, map fst (tb (install ko dels jn s)) = map fst (tb s).
Proof. intros. unfold install. cbn. apply retag_keys. Qed.

Lemma getjob_install : forall k ko dels jn s, getjob k (install ko dels jn s) = getjob k s.
Proof. intros. unfold install. destruct k; reflexivity. Qed.

(* what a class after install says about the class before *)
Lemma install_back : forall ko dels jn s t c',
  tget (tb (install ko dels jn s)) t = Some c' ->
  exists c, tget (tb s) t = Some c /\
    (c' = c \/ (c = CTab /\ c' = CObs /\ In t dels) \/ (exists k, ko = Some k /\ c = COut k /\ c' = CTab)).
Proof.
  intros ko dels jn s t c'. rewrite install_tget. destruct (tget (tb s) t) as [c|]; [|discriminate].
  cbn. intros E. inversion E; subst. exists c. split; auto.
  destruct c; cbn; auto.
  - destruct (nmem dels t) eqn:En; auto. right. left. apply nmem_In in En. auto.
  - destruct ko as [k0|]; auto. destruct (jkind_eqb k0 k) eqn:Ek; auto.
    apply jkind_eqb_eq in Ek. subst. right. right. exists k. auto.
Qed.

Lemma install_tab : forall ko dels jn s t,
  tget (tb (install ko dels jn s)) t = Some CTab <->
  (tget (tb s) t = Some CTab /\ ~ In t dels) \/ (exists k, ko = Some k /\ tget (tb s) t = Some (COut k)).
Proof.
  intros. rewrite install_tget. destruct (tget (tb s) t) as [c|] eqn:Ec; cbn.
  - destruct c; cbn.
    + destruct (nmem dels t) eqn:En.
      * apply nmem_In in En. split; [discriminate|]. intros [[_ Hn]|[k [_ E]]]; [contradiction | discriminate].
      * apply nmem_false in En. split; auto.
    + split; [discriminate|]. intros [[E _]|[k [_ E]]]; discriminate.
    + split; [discriminate|]. intros [[E _]|[k [_ E]]]; discriminate.
    + split; [discriminate|]. intros [[E _]|[k0 [_ E]]]; discriminate.
    + destruct ko as [k0|].
      * destruct (jkind_eqb k0 k) eqn:Ek.
        -- apply jkind_eqb_eq in Ek. subst. split; auto. intros _. right. exists k. auto.
        -- apply jkind_eqb_neq in Ek. split; [discriminate|].
           intros [[E _]|[k1 [E1 E2]]]; [discriminate|]. inversion E1; inversion E2; subst. congruence.
      * split; [discriminate|]. intros [[E _]|[k1 [E1 _]]]; discriminate.
  - split; [discriminate|]. intros [[E _]|[k [_ E]]]; discriminate.
Qed.

Lemma install_back_same : forall ko dels jn s t c',
  tget (tb (install ko dels jn s)) t = Some c' -> c' <> CTab -> c' <> CObs -> tget (tb s) t = Some c'.
Proof.
  intros ko dels jn s t c' Hc H1 H2.
  destruct (install_back _ _ _ _ _ _ Hc) as [c [Hc0 [E|[(_&E&_)|[k0 (_&_&E)]]]]]; congruence.
Qed.

(* the parts of the invariant that do not mention the views survive install *)
Lemma install_core : forall ko dels jn s, Inv s ->
  let s' := install ko dels jn s in
  NoDup (map fst (tb s')) /\ IN (next s) (journal s) (man s) (frozen s) (tb s') (pins s) /\
  IH (held s) (tb s') /\ IP (pins s) (tb s') /\ IJ s'.
Proof.
  intros ko dels jn s H s'. subst s'.
  split; [rewrite install_keys; apply (i_k s H)|].
  split; [|split; [|split]].
  - destruct (i_n s H) as (A&B&C&D&F). split; [|split; [|split; [|split]]]; auto.
    intros t c' Hc. destruct (install_back _ _ _ _ _ _ Hc) as [c [Hc0 _]]. apply (D t c Hc0).
  - intros h t Hh Ht. destruct (i_h s H h t Hh Ht) as [E|E]; rewrite install_tget, E; cbn; auto.
    destruct (nmem dels t); auto.
  - intros t Ht k. destruct (i_p s H t Ht k) as [P1 P2]. split.
    + intro Hc. apply install_back_same in Hc; try discriminate. auto.
    + intros Hk Hc. apply install_back_same in Hc; try discriminate. apply (P2 Hk); auto.
  - intros k. rewrite getjob_install. intros Hoff t. destruct (i_j s H k Hoff t) as [J1 J2]. split.
    + intro Hc. apply install_back_same in Hc; try discriminate. auto.
    + intro Hc. apply install_back_same in Hc; try discriminate. auto.
Qed.

Lemma mark_failed_Inv : forall ko s, Inv s -> Inv (mark_failed ko s).
Proof.
  intros [k|] s H; cbn; auto. apply setjob_Inv; auto; cbn.
  - intros Hoff. apply (i_j s H k Hoff).
  - discriminate.
Qed.

(* a further possible view, after a record was written but its write or sync failed *)
Lemma add_view_Inv : forall s r, Inv s ->
  (forall t c, In t (v_tabs r) -> tget (tb s) t = Some c ->
     c = CTab \/ exists k, c = COut k /\ j_cfail (getjob k s) = true) ->
  v_prev r = None -> man s = Some (v_man r) -> v_jnum r <= journal s ->
  (fdone s = true -> v_jnum r = journal s) ->
  view_wf r -> (forall t, In t (v_tabs r) -> t < next s) ->
  Inv (set_mfailed true (set_views (views s ++ [r]) s)).
Proof.
  intros s r H H1 H3 H4 H5 H6 H7 H8.
  assert (Hin : forall v, In v (views s ++ [r]) -> In v (views s) \/ v = r).
  { intros v Hv. apply in_app_or in Hv. destruct Hv as [|[ <- |[]]]; auto. }
  constructor; cbn; try apply H.
  - intros v t c Hv Ht Hc. cbn in *.
    assert (Hx : c = CTab \/ exists k, c = COut k /\ j_cfail (getjob k s) = true).
    { destruct (Hin v Hv) as [Hv' | -> ]; [apply (i_v1 s H v t c Hv' Ht Hc) | apply (H1 t c); auto]. }
    destruct Hx as [|[k [E1 E2]]]; auto; try (right; exists k; split; auto; destruct k; auto).
  - intros E; discriminate.
  - intros v Hv. destruct (Hin v Hv) as [Hv' | -> ]; auto. apply (i_v3 s H v Hv').
  - intros v Hv. destruct (Hin v Hv) as [Hv' | -> ]; auto. apply (i_v4 s H v Hv').
  - destruct (i_v5 s H) as [V S]. split; auto. intros v Hv. destruct (Hin v Hv) as [Hv' | -> ]; auto.
  - intros Ef. destruct (i_v6 s H Ef) as [V S]. split; auto. intros v Hv. destruct (Hin v Hv) as [Hv' | -> ]; auto.
  - intros v Hv. destruct (Hin v Hv) as [Hv' | -> ]; [apply (i_v7 s H v Hv') | split; auto].
Qed.

Lemma mark_failed_getjob : forall ko s k', ko <> Some k' -> getjob k' (mark_failed ko s) = getjob k' s.
Proof.
  intros [k|] s k' Hne; cbn; auto. apply getjob_setjob_neq. congruence.
Qed.

Definition commit_ok_post (ko : option jkind) (jn : option N) (s s' : st) : Prop :=
  (forall t c', tget (tb s') t = Some c' -> c' <> CTab -> c' <> CObs -> tget (tb s) t = Some c') /\
  (forall k, ko = Some k -> forall t, tget (tb s') t <> Some (COut k)) /\
  (forall j, jn = Some j -> (forall v, In v (views s') -> v_jnum v = j) /\ sjnum s' = j) /\
  (forall k, getjob k s' = getjob k s) /\
  journal s' = journal s /\ fdone s' = fdone s /\ frozen s' = frozen s /\ held s' = held s /\ pins s' = pins s /\
  (mfailed s' = false).

Definition commit_fail_post (ko : option jkind) (s s' : st) : Prop :=
  tb s' = tb s /\ journal s' = journal s /\ fdone s' = fdone s /\ frozen s' = frozen s /\ held s' = held s /\
  pins s' = pins s /\ (forall k', ko <> Some k' -> getjob k' s' = getjob k' s) /\
  (forall k, ko = Some k -> j_cfail (getjob k s') = true).

(* The outcomes of session.commit.  On the newManifest path the new manifest is current before Remove is called
   on the old one (Remove does not read the three fields set last, so the model's order can be turned round). *)
Lemma do_rm_set_man : forall f ok why s x y z,
  set_man x (set_hasman y (set_mfailed z (fst (do_rm f ok why s)))) =
  fst (do_rm f ok why (set_man x (set_hasman y (set_mfailed z s)))).
Proof. intros. unfold do_rm. cbn [files set_man set_hasman set_mfailed]. destruct (fmem (files s) f); [destruct ok|]; reflexivity. Qed.

Definition new_man_state (ko : option jkind) (dels : list N) (jn : option N) (s : st) : st :=
  let m := next s in
  let s2 := install ko dels jn (set_next (m + 1) s) in
  let v := {| v_tabs := tabs_of (tb s2); v_jnum := sjnum s2; v_prev := None; v_next := m + 1; v_man := m |} in
  set_man (Some m) (set_hasman true (set_mfailed false (set_views [v] (set_files (fadd (files s) (FManifest, m)) s2)))).

Lemma commit_new_ok : forall ko dels jn rot rmok s, negb (hasman s) || mfailed s || rot = true ->
  commit ko dels jn rot COk rmok s =
  (match man s with
   | Some old => fst (do_rm (FManifest, old) rmok RFailed (new_man_state ko dels jn s))
   | None => new_man_state ko dels jn s
   end, true).
Proof.
  intros ko dels jn rot rmok s E. unfold commit, new_man_state. rewrite E.
  destruct (man s); [rewrite do_rm_set_man|]; reflexivity.
Qed.

Lemma commit_new_fail : forall ko dels jn rot o rmok s, negb (hasman s) || mfailed s || rot = true -> o <> COk ->
  commit ko dels jn rot o rmok s =
  (mark_failed ko (reuse_num (next s) (fst (do_rm (FManifest, next s) rmok RFailed
     (set_files (fadd (files s) (FManifest, next s)) (set_next (next s + 1) s))))), false).
Proof. intros ko dels jn rot o rmok s E Ho. unfold commit. rewrite E. destruct o; [contradiction|reflexivity..]. Qed.

Lemma commit_flush : forall ko dels jn rot o rmok s, negb (hasman s) || mfailed s || rot = false ->
  let r := apply_rec (hd dflt_view (views s)) (outs_of ko s) dels jn (next s) in
  commit ko dels jn rot o rmok s =
  match o with
  | COk => (set_views [r] (install ko dels jn s), true)
  | CFailClean => (mark_failed ko (set_mfailed true s), false)
  | CFailDirty => (mark_failed ko (set_mfailed true (set_views (views s ++ [r]) s)), false)
  end.
Proof. intros ko dels jn rot o rmok s E. unfold commit. rewrite E. reflexivity. Qed.
