(* Store/SweepFiles.v — what is on storage while the DB of Store/Sweep.v runs: the invariant InvF (exactly the live
   files and those the residue names), kept by every step (step_InvF, run_InvF), and the listing at a quiescent point
   (no_residue). *)
From Coq Require Import NArith PeanoNat List Bool Lia.
From GL Require Import Store.Sweep Store.SweepProofs Store.SweepInv Store.SweepCommit Store.SweepSteps Store.SweepOpen.
Import ListNotations.
Open Scope N_scope.

Local Arguments tset : simpl never.
Local Arguments fdel : simpl never.
Local Arguments nmem : simpl never.
Local Arguments install : simpl never.

Record InvF (s : st) : Prop := {
  f_tb : forall t c, tget (tb s) t = Some c -> In (FTable, t) (files s);
  f_j : In (FJournal, journal s) (files s);
  f_z : forall z, frozen s = Some z -> In (FJournal, z) (files s);
  f_m : forall m, man s = Some m -> In (FManifest, m) (files s);
  f_acc : forall f, In f (files s) -> is_live s f = true \/ In f (map fst (residue s));
  f_res : forall f why, In (f, why) (residue s) -> In f (files s) }.

Lemma is_live_ext : forall s s' f,
  journal s' = journal s -> frozen s' = frozen s -> man s' = man s ->
  (forall t, tget (tb s') t = None <-> tget (tb s) t = None) ->
  is_live s' f = is_live s f.
Proof.
  intros s s' [ty n] Ej Ez Em Ht. unfold is_live. cbn [fst snd]. rewrite Ej, Ez, Em.
  destruct ty; auto. specialize (Ht n).
  destruct (tget (tb s') n), (tget (tb s) n); auto.
  - destruct Ht as [_ Ht]. specialize (Ht eq_refl). discriminate.
  - destruct Ht as [Ht _]. specialize (Ht eq_refl). discriminate.
Qed.

Lemma InvF_ext : forall s s',
  files s' = files s -> residue s' = residue s -> journal s' = journal s -> frozen s' = frozen s ->
  man s' = man s -> (forall t, tget (tb s') t = None <-> tget (tb s) t = None) ->
  InvF s -> InvF s'.
Proof.
  intros s s' Ef Er Ej Ez Em Ht H.
  constructor; rewrite ?Ef, ?Er, ?Ej, ?Ez, ?Em; try apply H.
  - intros t c Hc. destruct (tget (tb s) t) as [c0|] eqn:E0; [apply (f_tb s H t c0 E0)|].
    apply Ht in E0. congruence.
  - intros f Hf. rewrite (is_live_ext s s' f Ej Ez Em Ht). apply (f_acc s H f Hf).
Qed.

Lemma is_live_table : forall s t, is_live s (FTable, t) = match tget (tb s) t with Some _ => true | None => false end.
Proof. reflexivity. Qed.

(* InvF in one sentence: storage holds exactly the live files and those the residue names *)
Definition stored (s : st) (f : fd) : Prop := is_live s f = true \/ In f (map fst (residue s)).

Lemma InvF_iff : forall s, InvF s <-> forall f, In f (files s) <-> stored s f.
Proof.
  intros s. split.
  - intros H f. split; [apply (f_acc s H)|]. intros [Hl|Hr].
    + destruct f as [[] n]; unfold is_live in Hl; cbn [fst snd] in Hl.
      * destruct (man s) as [m|] eqn:Em; [|discriminate]. apply N.eqb_eq in Hl. rewrite <- Hl. apply (f_m s H m Em).
      * apply orb_true_iff in Hl. destruct Hl as [Hl|Hl].
        -- apply N.eqb_eq in Hl. rewrite Hl. apply (f_j s H).
        -- destruct (frozen s) as [z|] eqn:Ez; [|discriminate]. apply N.eqb_eq in Hl. rewrite <- Hl. apply (f_z s H z Ez).
      * destruct (tget (tb s) n) as [c|] eqn:Ec; [|discriminate]. apply (f_tb s H n c Ec).
      * discriminate.
    + apply in_map_iff in Hr. destruct Hr as [[g w] [E Hin]]. cbn in E. subst g. apply (f_res s H f w Hin).
  - intros H. constructor.
    + intros t c Hc. apply H. left. rewrite is_live_table, Hc. reflexivity.
    + apply H. left. unfold is_live. cbn. rewrite N.eqb_refl. reflexivity.
    + intros z Hz. apply H. left. unfold is_live. cbn. rewrite Hz, N.eqb_refl. apply orb_true_r.
    + intros m Hm. apply H. left. unfold is_live. cbn. rewrite Hm. apply N.eqb_refl.
    + intros f Hf. apply H. exact Hf.
    + intros f why Hf. apply H. right. apply in_map_iff. exists (f, why). auto.
Qed.

Lemma res_del_In : forall (r : list (fd * reason)) f g,
  In g (map fst (filter (fun x => negb (fd_eqb f (fst x))) r)) <-> In g (map fst r) /\ g <> f.
Proof.
  intros r f g. rewrite !in_map_iff. split.
  - intros [x [E Hx]]. apply filter_In in Hx. destruct Hx as [Hx Hne]. apply negb_true_iff, fd_eqb_neq in Hne.
    split; [exists x; auto | congruence].
  - intros [[x [E Hx]] Hne]. exists x. split; auto. apply filter_In. split; auto.
    apply negb_true_iff, fd_eqb_neq. congruence.
Qed.

(* One Remove call of f.  Before it, everything but f is accounted for, f itself is on storage if the residue
   names it, and f is not among the files P that are live afterwards (P is stated for the state in which the
   caller wants InvF, which may differ from the state of the call in fields Remove does not touch). *)
Lemma do_rm_stored : forall (P : fd -> Prop) f ok why s, ~ P f ->
  (forall g, g <> f -> (In g (files s) <-> P g \/ In g (map fst (residue s)))) ->
  (In f (map fst (residue s)) -> In f (files s)) ->
  forall g, In g (files (fst (do_rm f ok why s))) <-> P g \/ In g (map fst (residue (fst (do_rm f ok why s)))).
Proof.
  intros P f ok why s Hnf Hs Hr g. unfold do_rm.
  destruct (fmem (files s) f) eqn:Ef; [apply fmem_In in Ef; destruct ok|apply fmem_false in Ef]; cbn.
  - rewrite fdel_In, res_del_In. destruct (fd_eqb g f) eqn:Eg.
    + apply fd_eqb_eq in Eg. subst. tauto.
    + apply fd_eqb_neq in Eg. specialize (Hs g Eg). tauto.
  - destruct (fd_eqb g f) eqn:Eg.
    + apply fd_eqb_eq in Eg. subst. tauto.
    + apply fd_eqb_neq in Eg. specialize (Hs g Eg). assert (f <> g) by congruence. tauto.
  - destruct (fd_eqb g f) eqn:Eg.
    + apply fd_eqb_eq in Eg. subst. tauto.
    + apply fd_eqb_neq in Eg. exact (Hs g Eg).
Qed.

Lemma is_live_do_rm : forall f ok why s g, is_live (fst (do_rm f ok why s)) g = is_live s g.
Proof. intros. destruct (do_rm_form f ok why s) as (fl & r & -> & _). reflexivity. Qed.

(* one Remove call of a file that is not live *)
Lemma do_rm_InvF : forall f ok why s, InvF s -> is_live s f = false -> InvF (fst (do_rm f ok why s)).
Proof.
  intros f ok why s H Hl. rewrite InvF_iff in *.
  intros g. unfold stored. rewrite is_live_do_rm.
  apply (do_rm_stored (fun g => is_live s g = true)); [congruence|intros g' _; apply H|].
  intros Hr. apply H. right. exact Hr.
Qed.

(* a table leaves the map and Remove is called on its file *)
Lemma del_rm_InvF : forall t ok s, InvF s ->
  InvF (fst (do_rm (FTable, t) ok RFailed (set_tb (tdel (tb s) t) s))).
Proof.
  intros t ok s H. rewrite InvF_iff in *.
  set (s0 := set_tb (tdel (tb s) t) s).
  intros g. unfold stored. rewrite is_live_do_rm.
  apply (do_rm_stored (fun g => is_live s0 g = true)).
  - rewrite is_live_table. cbn. rewrite tget_tdel_eq. discriminate.
  - intros [ty n] Hne. cbn [files residue s0 set_tb]. rewrite (H (ty, n)). unfold stored.
    destruct ty; try reflexivity. rewrite !is_live_table. cbn. rewrite tget_tdel_neq by congruence. reflexivity.
  - intros Hr. apply H. right. exact Hr.
Qed.

Lemma reuse_InvF : forall n s, InvF s -> InvF (reuse_num n s).
Proof.
  intros n s H. unfold reuse_num. destruct (next s =? n + 1); auto.
  apply (InvF_ext s); auto. intros; tauto.
Qed.

Lemma del_func_InvF : forall t ok s, InvF s -> InvF (del_func t ok s).
Proof.
  intros t ok s H. unfold del_func. pose proof (del_rm_InvF t ok s H) as H1.
  destruct (reuse _); auto. apply reuse_InvF; auto.
Qed.

Lemma tops_remove_InvF : forall t ok s, InvF s -> tget (tb s) t <> None -> InvF (tops_remove t ok s).
Proof.
  intros t ok s H Ht. unfold tops_remove. destruct (nmem (pins s) t); [|apply del_func_InvF; auto].
  apply (InvF_ext s); auto. cbn. intros u. rewrite tget_tset. destruct (N.eqb_spec t u) as [ <- |]; [|tauto].
  split; [discriminate | intros E; contradiction].
Qed.

Lemma orphan_InvF : forall ts why s, InvF s -> (forall t, In t ts -> tget (tb s) t <> None) -> InvF (orphan ts why s).
Proof.
  intros ts why s H Hts. unfold orphan.
  assert (Hget : forall u, tget (filter (fun x => negb (nmem ts (fst x))) (tb s)) u =
                           if negb (nmem ts u) then tget (tb s) u else None).
  { intros u. apply (tget_filter_keys (fun t => negb (nmem ts t))). }
  constructor; cbn; try apply H.
  - intros u c. rewrite Hget. destruct (negb (nmem ts u)); [apply (f_tb s H u c) | discriminate].
  - intros g Hg. destruct (f_acc s H g Hg) as [Hl|Hr].
    + destruct g as [[] n]; auto. unfold is_live in *. cbn in *. rewrite Hget.
      destruct (nmem ts n) eqn:En; cbn; auto. right. rewrite map_app. apply in_or_app. left.
      rewrite map_map. cbn. apply in_map_iff. exists n. split; auto. apply nmem_In; auto.
    + right. rewrite map_app. apply in_or_app. right. auto.
  - intros g w Hg. apply in_app_or in Hg. destruct Hg as [Hg|Hg]; [|apply (f_res s H g w Hg)].
    apply in_map_iff in Hg. destruct Hg as [u [E Hu]]. inversion E; subst.
    destruct (tget (tb s) u) as [c|] eqn:Ec; [apply (f_tb s H u c Ec)|]. exfalso. apply (Hts u Hu). auto.
Qed.

Lemma install_none : forall ko dels jn s t, tget (tb (install ko dels jn s)) t = None <-> tget (tb s) t = None.
Proof.
  intros. rewrite install_tget. destruct (tget (tb s) t); cbn; split; auto; discriminate.
Qed.

Lemma mark_failed_InvF : forall ko s, InvF s -> InvF (mark_failed ko s).
Proof.
  intros ko s H. apply (InvF_ext s); try (destruct ko as [[]|]; reflexivity); auto.
Qed.

(* a file is created and removed again *)
Lemma add_rm_InvF : forall f ok why s, InvF s -> is_live s f = false ->
  InvF (fst (do_rm f ok why (set_files (fadd (files s) f) s))).
Proof.
  intros f ok why s H Hl. rewrite InvF_iff in *.
  set (s0 := set_files (fadd (files s) f) s).
  intros g. unfold stored. rewrite is_live_do_rm. change (is_live s0 g) with (is_live s g).
  apply (do_rm_stored (fun g => is_live s g = true)); cbn; [congruence| |intros _; apply fadd_In; auto].
  intros g' Hne. rewrite fadd_In. rewrite (H g'). unfold stored. tauto.
Qed.

Lemma is_live_manifest : forall s n, is_live s (FManifest, n) = true <-> man s = Some n.
Proof.
  intros s n. unfold is_live. cbn. destruct (man s) as [m|]; [|split; discriminate].
  rewrite N.eqb_eq. split; congruence.
Qed.

(* what is live once the manifest has been replaced by m *)
Lemma is_live_new_man : forall s s' m g, journal s' = journal s -> frozen s' = frozen s -> man s' = Some m ->
  (forall t, tget (tb s') t = None <-> tget (tb s) t = None) ->
  (is_live s' g = true <-> g = (FManifest, m) \/ fst g <> FManifest /\ is_live s g = true).
Proof.
  intros s s' m [ty n] Ej Ez Em Ht. destruct ty.
  - rewrite is_live_manifest, Em. cbn. split; [intros E; left; congruence | intros [E|[E _]]; congruence].
  - unfold is_live. cbn. rewrite Ej, Ez. split; [intros E; right; split; [discriminate|exact E] | intros [E|[_ E]]; [discriminate|exact E]].
  - rewrite !is_live_table. specialize (Ht n). destruct (tget (tb s') n), (tget (tb s) n);
      split; try (intros [E|[_ E]]; discriminate); try discriminate; try (right; split; [discriminate|reflexivity]); try reflexivity.
    + destruct Ht as [_ Ht]. discriminate (Ht eq_refl).
    + destruct Ht as [Ht _]. discriminate (Ht eq_refl).
  - cbn. split; [discriminate | intros [E|[_ E]]; discriminate].
Qed.

Lemma commit_InvF : forall ko dels jn rot o rmok s, Inv s -> InvF s -> InvF (fst (commit ko dels jn rot o rmok s)).
Proof.
  intros ko dels jn rot o rmok s HI H. unfold commit.
  destruct (i_n s HI) as (A&B&C&D&F).
  destruct (negb (hasman s) || mfailed s || rot).
  - set (m := next s).
    assert (Hm : man s <> Some m) by (intros E; specialize (B m E); unfold m in *; lia).
    assert (Hfail : InvF (fst (do_rm (FManifest, m) rmok RFailed
                     (set_files (fadd (files (set_next (m + 1) s)) (FManifest, m)) (set_next (m + 1) s))))).
    { apply (add_rm_InvF _ _ _ (set_next (m + 1) s)); [apply (InvF_ext s); auto; intros; tauto|].
      apply not_true_is_false. rewrite is_live_manifest. exact Hm. }
    destruct o; [|cbn [fst]; apply mark_failed_InvF, reuse_InvF, Hfail..].
    (* the manifest is replaced: m becomes live, the old one stops being so before Remove is called on it *)
    set (s2 := install ko dels jn (set_next (m + 1) s)).
    assert (F1 : files s2 = files s) by reflexivity.
    assert (F8 : journal s2 = journal s) by reflexivity.
    assert (F9 : frozen s2 = frozen s) by reflexivity.
    set (s3 := set_views _ (set_files (fadd (files s2) (FManifest, m)) s2)).
    assert (L : forall s4 g, tb s4 = tb s2 -> journal s4 = journal s -> frozen s4 = frozen s ->
              (is_live (set_man (Some m) (set_hasman true (set_mfailed false s4))) g = true <->
               g = (FManifest, m) \/ fst g <> FManifest /\ is_live s g = true)).
    { intros s4 g E1 E2 E3. apply is_live_new_man; auto. intros t. cbn. rewrite E1. exact (install_none ko dels jn (set_next (m + 1) s) t). }
    rewrite InvF_iff in H.
    assert (S3 : forall g, In g (files s3) <-> g = (FManifest, m) \/ stored s g).
    { intros g. cbn. rewrite fadd_In, F1, (H g). reflexivity. }
    apply InvF_iff. intros g. unfold stored. cbn [fst files residue set_man set_hasman set_mfailed].
    destruct (man s) as [old|] eqn:Em.
    + destruct (do_rm_form (FManifest, old) rmok RFailed s3) as (fs & r & Erm & _).
      apply (do_rm_stored (fun g => is_live (set_man (Some m) (set_hasman true (set_mfailed false
               (fst (do_rm (FManifest, old) rmok RFailed s3))))) g = true)); cbv beta.
      * rewrite L by (rewrite Erm; auto). intros [E|[E _]]; [congruence | apply E; reflexivity].
      * intros [ty n] Hne. rewrite L, S3 by (rewrite ?Erm; auto). unfold stored. change (residue s3) with (residue s).
        assert (is_live s (ty, n) = true -> ty <> FManifest).
        { intros E ->. apply is_live_manifest in E. congruence. }
        cbn [fst]. tauto.
      * intros Hr. apply S3. right. right. exact Hr.
    + rewrite L, S3 by reflexivity. unfold stored. change (residue s3) with (residue s).
      assert (is_live s g = true -> fst g <> FManifest).
      { destruct g as [ty n]. intros E. cbn. intros ->. apply is_live_manifest in E. congruence. }
      tauto.
  - destruct o; cbn [fst].
    + apply (InvF_ext s); auto. cbn. intros t. apply install_none.
    + apply mark_failed_InvF. apply (InvF_ext s); auto. intros; tauto.
    + apply mark_failed_InvF. apply (InvF_ext s); auto. intros; tauto.
Qed.

Lemma setjob_InvF : forall k j s, InvF s -> InvF (setjob k j s).
Proof.
  intros k j s H. apply (InvF_ext s); try (destruct k; reflexivity); auto;
    try (intros t; destruct k; cbn; tauto).
Qed.

Lemma revert_seq_InvF : forall ts bad s, InvF s -> NoDup ts -> (forall t, In t ts -> tget (tb s) t <> None) ->
  InvF (revert_seq ts bad s).
Proof.
  induction ts as [|t ts IH]; intros bad s H Hnd Hts; cbn [revert_seq]; auto.
  inversion Hnd as [|x l Hnot Hnd']; subst.
  pose proof (del_rm_InvF t (negb (fmem bad (FTable, t))) s H) as H1.
  destruct (do_rm_form (FTable, t) (negb (fmem bad (FTable, t))) RFailed (set_tb (tdel (tb s) t) s)) as (fl & r & E2 & _).
  destruct (do_rm (FTable, t) (negb (fmem bad (FTable, t))) RFailed (set_tb (tdel (tb s) t) s)) as [s1 ok]. cbn [fst] in *.
  assert (Hrest : forall u, In u ts -> tget (tb s1) u <> None).
  { intros u Hu. rewrite E2. cbn. rewrite tget_tdel_neq; [apply Hts; right; auto|]. intro; subst; contradiction. }
  destruct ok; [apply IH; auto | apply orphan_InvF; auto].
Qed.

Lemma tops_remove_all_InvF : forall ts bad s, InvF s -> NoDup ts -> (forall t, In t ts -> tget (tb s) t <> None) ->
  InvF (tops_remove_all ts bad s).
Proof.
  induction ts as [|t ts IH]; intros bad s H Hnd Hts; cbn [tops_remove_all]; auto.
  inversion Hnd as [|x l Hnot Hnd']; subst.
  destruct (tops_remove_fields t (negb (fmem bad (FTable, t))) s) as (_&_&_&_&_&E6&_).
  apply IH; auto.
  - apply tops_remove_InvF; auto. apply Hts; left; auto.
  - intros u Hu. rewrite E6; [apply Hts; right; auto|]. intro; subst; contradiction.
Qed.

Lemma outs_present : forall k s t, NoDup (map fst (tb s)) -> In t (keys_with (is_out k) (tb s)) -> tget (tb s) t <> None.
Proof. intros k s t Hk Ht. apply outs_In in Ht; auto. congruence. Qed.

Theorem step_InvF : forall s o s', Inv s -> InvF s -> step s o = Some s' -> opened s' = true -> InvF s'.
Proof.
  intros s o s' HI H Hs Ho. pose proof (i_k s HI) as HK.
  destruct o; cbn in Hs.
  - destruct (opened s && _); [|discriminate]. inversion Hs; subst. apply (InvF_ext s); auto. intros; tauto.
  - destruct (opened s && nmem (pins s) t); [|discriminate].
    assert (H1 : InvF (set_pins (nremove1 (pins s) t) s)) by (apply (InvF_ext s); auto; intros; tauto).
    cbn in Hs. destruct (tget (tb s) t) as [c|]; [|inversion Hs; subst; auto].
    destruct c; try (inversion Hs; subst; auto; fail).
    destruct (nmem (nremove1 (pins s) t) t); inversion Hs; subst; auto. apply del_func_InvF; auto.
  - destruct (opened s); [|discriminate]. inversion Hs; subst. apply (InvF_ext s); auto. intros; tauto.
  - destruct (opened s && _); [|discriminate]. inversion Hs; subst. apply (InvF_ext s); auto. intros; tauto.
  - destruct (frozen s) eqn:Efz; [rewrite andb_false_r in Hs; discriminate|].
    destruct (opened s && negb (j_on (jt s)) && true); [|discriminate].
    destruct ok; inversion Hs; subst; clear Hs.
    + set (sR := set_fempty _ _).
      assert (L : forall g, is_live sR g = true <-> g = (FJournal, next s) \/ is_live s g = true).
      { intros [[] n]; unfold is_live; cbn; rewrite ?Efz; try (split; [auto | intros [E|E]; [discriminate|exact E]]).
        rewrite orb_false_r, orb_true_iff, !N.eqb_eq.
        split; [intros [-> | <-]; auto | intros [E | ->]; [left; congruence|auto]]. }
      apply InvF_iff. rewrite InvF_iff in H. intros g. unfold stored. rewrite L. cbn.
      rewrite fadd_In, (H g). unfold stored. tauto.
    + apply reuse_InvF. apply (InvF_ext s); auto. intros; tauto.
  - destruct (opened s && _ && _); [|discriminate]. inversion Hs; subst. apply setjob_InvF; auto.
  - destruct (opened s && _ && _ && _); [|discriminate].
    destruct ok; inversion Hs; subst; clear Hs; [|apply (InvF_ext s); auto; intros; tauto].
    set (t := next s). set (sC := set_tb _ _).
    assert (L : forall g, is_live sC g = true <-> g = (FTable, t) \/ is_live s g = true).
    { intros [[] n]; try (split; [auto | intros [E|E]; [discriminate|exact E]]).
      rewrite !is_live_table. cbn. rewrite tget_tset. destruct (N.eqb_spec t n) as [-> | Hne]; [tauto|].
      split; [auto | intros [E|E]; [congruence|exact E]]. }
    apply InvF_iff. rewrite InvF_iff in H. intros g. unfold stored. rewrite L. cbn.
    rewrite fadd_In, res_del_In, (H g). unfold stored.
    destruct (fd_eqb g (FTable, t)) eqn:Eg; [apply fd_eqb_eq in Eg|apply fd_eqb_neq in Eg]; tauto.
  - destruct (cur_of k s) as [t|] eqn:Ec; [|discriminate]. destruct (opened s); [|discriminate].
    inversion Hs; subst. apply cur_of_Some in Ec; auto.
    apply (InvF_ext s); auto. cbn. intros u. rewrite tget_tset. destruct (N.eqb_spec t u) as [ <- |]; [|tauto].
    split; [discriminate | congruence].
  - destruct (cur_of k s) as [t|] eqn:Ec; [|discriminate]. destruct (opened s); [|discriminate].
    pose proof (del_rm_InvF t ok s H) as H1.
    destruct (do_rm (FTable, t) ok RFailed (set_tb (tdel (tb s) t) s)) as [s1 done]. cbn [fst] in *.
    inversion Hs; subst. destruct done; auto. apply reuse_InvF; auto.
  - destruct (opened s && _ && _ && _); [|discriminate].
    pose proof (commit_InvF (Some k) (j_del (getjob k s)) (match k with KFlush => Some (journal s) | _ => None end) rot o rmok s HI H) as H1.
    destruct (commit (Some k) (j_del (getjob k s)) (match k with KFlush => Some (journal s) | _ => None end) rot o rmok s) as [s1 ok].
    cbn [fst] in *. destruct ok; inversion Hs; subst; auto.
    apply setjob_InvF. destruct k; auto. apply (InvF_ext s1); auto. intros; tauto.
  - destruct (opened s && _ && _ && _ && _); [|discriminate]. inversion Hs; subst.
    apply setjob_InvF, revert_seq_InvF; auto; [apply keys_with_NoDup; auto | intros t Ht; eapply outs_present; eauto].
  - destruct (opened s && _ && _ && _); [|discriminate]. inversion Hs; subst.
    apply setjob_InvF, orphan_InvF; auto. intros t Ht; eapply outs_present; eauto.
  - destruct (frozen s) as [z|] eqn:Ez; [|discriminate].
    destruct (opened s && (fdone s || fempty s)); [|discriminate]. inversion Hs; subst; clear Hs.
    destruct (i_n s HI) as (_&_&C&_). specialize (C z Ez).
    destruct (do_rm_form (FJournal, z) ok RFailed s) as (fs & r & Erm & _).
    set (s1 := fst (do_rm (FJournal, z) ok RFailed s)) in *.
    assert (L : forall g, is_live (set_fempty false (set_fdone false (set_frozen None s1))) g = true <->
                          g <> (FJournal, z) /\ is_live s g = true).
    { intros [ty n]. unfold is_live. rewrite Erm. cbn. rewrite Ez.
      destruct ty; try (split; [intros E; split; [discriminate|exact E]|tauto]).
      rewrite orb_false_r, orb_true_iff, !N.eqb_eq. split.
      - intros ->. split; [intros E; inversion E; lia | left; reflexivity].
      - intros [Hne [E|E]]; [exact E|congruence]. }
    apply InvF_iff. rewrite InvF_iff in H. intros g. unfold stored. cbn [files residue set_fempty set_fdone set_frozen].
    apply (do_rm_stored (fun g => is_live (set_fempty false (set_fdone false (set_frozen None s1))) g = true)); cbv beta.
    + rewrite L. tauto.
    + intros g' Hne. rewrite L, (H g'). unfold stored. tauto.
    + intros Hr. apply H. right. exact Hr.
  - destruct (opened s && j_on (jt s) && _); [|discriminate].
    assert (Hstage : forall s1 keep,
              (s1, keep) = (if j_cfail (jt s) && mfailed s
                            then let '(s', ok) := commit None [] None false o rmok s in (s', negb ok)
                            else (s, false)) -> InvF s1 /\ NoDup (map fst (tb s1))).
    { intros s1 keep E. destruct (j_cfail (jt s) && mfailed s).
      - pose proof (commit_InvF None [] None false o rmok s HI H) as H1.
        destruct (commit_Inv None [] None false o rmok s HI (or_introl eq_refl)) as (H2&_&_).
        destruct (commit None [] None false o rmok s) as [sc ok]. cbn [fst] in *. inversion E; subst.
        split; auto. apply (i_k _ H2).
      - inversion E; subst. auto. }
    destruct (if j_cfail (jt s) && mfailed s
              then let '(s', ok) := commit None [] None false o rmok s in (s', negb ok)
              else (s, false)) as [s1 keep] eqn:Est.
    destruct (Hstage s1 keep eq_refl) as [H1 HK1].
    destruct keep; inversion Hs; subst.
    + change (set_jt job_off (orphan (keys_with (is_out KTxn) (tb s1)) RKept s1))
        with (setjob KTxn job_off (orphan (keys_with (is_out KTxn) (tb s1)) RKept s1)).
      apply setjob_InvF, orphan_InvF; auto. intros t Ht; eapply outs_present; eauto.
    + change (set_jt job_off (tops_remove_all (keys_with (is_out KTxn) (tb s1)) bad s1))
        with (setjob KTxn job_off (tops_remove_all (keys_with (is_out KTxn) (tb s1)) bad s1)).
      apply setjob_InvF, tops_remove_all_InvF; auto; [apply keys_with_NoDup; auto | intros t Ht; eapply outs_present; eauto].
  - destruct (opened s); [|discriminate]. cbn in Hs.
    destruct (tget (tb s) t) as [c|] eqn:Ec; [|discriminate].
    destruct (match c with CObs => true | _ => false end && _); [|discriminate]. inversion Hs; subst.
    apply tops_remove_InvF; auto. congruence.
  - destruct (opened s && all_off s && _ && _); [|discriminate]. inversion Hs; subst. cbn in Ho. discriminate.
  - rewrite (i_o s HI) in Hs. discriminate.
Qed.

Lemma open_InvF : forall v fl mbad bad s, InvC s -> In v (views s) ->
  opened (open_db v fl mbad bad s) = true -> InvF (open_db v fl mbad bad s).
Proof.
  intros v fl mbad bad s H Hv Ho.
  destruct (open_db_spec v fl mbad bad s H Hv) as [Hg Hsp]. destruct (Hsp Ho) as (E1&E2&Hcls&Hfz&Hres).
  unfold Good in Hg. rewrite Ho in Hg. pose proof (i_k _ Hg) as HK.
  set (s' := open_db v fl mbad bad s) in *.
  constructor.
  - intros t c Hc. apply E1. unfold exact_set. apply in_or_app. left. apply in_map_iff. exists t. split; auto.
    apply tabs_of_In; auto. rewrite Hc. f_equal. apply (Hcls t c Hc).
  - apply E1. unfold exact_set. apply in_or_app. right. left. auto.
  - rewrite Hfz. intros z Hz; discriminate.
  - intros m Hm. apply E1. unfold exact_set. rewrite Hm. apply in_or_app. right. right. left. auto.
  - intros g Hg'. destruct (is_live s' g) eqn:El; auto. right. rewrite Hres, map_map. cbn. rewrite map_id.
    apply filter_In. split; auto. rewrite El. auto.
  - intros g w Hg'. rewrite Hres in Hg'. apply in_map_iff in Hg'. destruct Hg' as [g' [E Hin]]. inversion E; subst.
    apply filter_In in Hin. tauto.
Qed.

Theorem run_InvF : forall ops s s', Good s -> (opened s = true -> InvF s) -> run s ops = Some s' ->
  opened s' = true -> InvF s'.
Proof.
  induction ops as [|o ops IH]; intros s s' Hg Hf Hr Ho; cbn in Hr.
  - inversion Hr; subst. auto.
  - destruct (step s o) as [s1|] eqn:Es; [|discriminate].
    pose proof (step_Good s o s1 Hg Es) as Hg1.
    apply (IH s1 s'); auto. intros Ho1.
    unfold Good in Hg. destruct (opened s) eqn:Eo.
    + apply (step_InvF s o s1); auto.
    + (* only Open leads from a closed state to an opened one *)
      destruct o; try (cbn in Es; rewrite ?Eo in Es; cbn in Es; try discriminate;
                       try (destruct (cur_of k s); discriminate); try (destruct (frozen s); discriminate); fail).
      unfold step in Es. rewrite Eo in Es. cbn [negb andb] in Es.
      destruct (Nat.ltb vi (length (views s))) eqn:El; [|discriminate]. inversion Es; subst.
      apply open_InvF; auto. apply nth_In. apply Nat.ltb_lt. auto.
Qed.

(* At every quiescent point of a running DB the listing is the exact set plus only files the residue names *)
Theorem no_residue : forall l v ru ops s,
  NoDup l -> view_wf v -> run (boot l v ru) ops = Some s -> quiescent s = true ->
  forall f, In f (files s) <-> In f (exact_set s) \/ In f (map fst (residue s)).
Proof.
  intros l v ru ops s Hl Hv Hr Hq.
  pose proof (run_Good ops _ _ (boot_Good l v ru Hl Hv) Hr) as Hg.
  unfold quiescent in Hq. repeat rewrite andb_true_iff in Hq. destruct Hq as [[[[[Ho _] _] _] Hall] Hfz].
  assert (Hf : InvF s).
  { apply (run_InvF ops (boot l v ru) s); auto; [apply boot_Good; auto | cbn; discriminate]. }
  unfold Good in Hg. rewrite Ho in Hg. pose proof (i_k s Hg) as HK.
  destruct (frozen s) eqn:Ez; [discriminate|].
  intros f. split.
  - intros Hin. destruct (f_acc s Hf f Hin) as [Hlive|]; auto. left.
    unfold exact_set. destruct f as [[] n]; unfold is_live in Hlive; cbn in Hlive.
    + destruct (man s) as [m|] eqn:Em; [|discriminate]. apply N.eqb_eq in Hlive. subst.
      apply in_or_app. right. right. left. auto.
    + rewrite Ez, orb_false_r in Hlive. apply N.eqb_eq in Hlive. subst. apply in_or_app. right. left. auto.
    + destruct (tget (tb s) n) as [c|] eqn:Ec; [|discriminate]. apply in_or_app. left.
      apply in_map_iff. exists n. split; auto. apply tabs_of_In; auto. rewrite Ec. f_equal.
      apply tget_In in Ec. rewrite forallb_forall in Hall. specialize (Hall _ Ec). cbn in Hall.
      destruct c; try discriminate. auto.
    + discriminate.
  - intros [Hin|Hin].
    + unfold exact_set in Hin. apply in_app_or in Hin. destruct Hin as [Hin|Hin].
      * apply in_map_iff in Hin. destruct Hin as [t [ <- Ht]]. apply tabs_of_In in Ht; auto. apply (f_tb s Hf t _ Ht).
      * destruct Hin as [ <- |Hin]; [apply (f_j s Hf)|].
        destruct (man s) as [m|] eqn:Em; [|destruct Hin]. destruct Hin as [ <- |[]]. apply (f_m s Hf m Em).
    + apply in_map_iff in Hin. destruct Hin as [[g w] [E Hin]]. cbn in E. subst. apply (f_res s Hf f w Hin).
Qed.
