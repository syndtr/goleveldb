(* Store/SweepProofs.v — proofs about the pure parts of Store/Sweep.v: list helpers, the janitor
   (checkAndCleanFiles) and recoverJournal's choice of journals, and the link to the L2 persistence
   model Store/Crash.v (its recover reads exactly the journals the choice predicate selects). *)
From Coq Require Import NArith PeanoNat List Bool Lia Permutation Sorted.
From GL Require Import Store.Sweep.
Import ListNotations.
Open Scope N_scope.

Lemma ftype_eqb_eq : forall a b, ftype_eqb a b = true <-> a = b.
Proof. destruct a, b; cbn; split; congruence. Qed.

Lemma fd_eqb_eq : forall a b, fd_eqb a b = true <-> a = b.
Proof.
  intros [a n] [b m]; unfold fd_eqb; cbn. rewrite andb_true_iff, ftype_eqb_eq, N.eqb_eq.
  split; [intros [-> ->]; reflexivity | intros H; inversion H; auto].
Qed.

Lemma fd_eqb_refl : forall a, fd_eqb a a = true.
Proof. intros; apply fd_eqb_eq; reflexivity. Qed.

Lemma fd_eqb_neq : forall a b, fd_eqb a b = false <-> a <> b.
Proof. intros. rewrite <- fd_eqb_eq. destruct (fd_eqb a b); split; congruence. Qed.

Lemma fmem_In : forall l x, fmem l x = true <-> In x l.
Proof.
  intros; unfold fmem; rewrite existsb_exists; split.
  - intros [y [Hy He]]. apply fd_eqb_eq in He. subst; auto.
  - intros; exists x; split; auto using fd_eqb_refl.
Qed.

Lemma fmem_false : forall l x, fmem l x = false <-> ~ In x l.
Proof. intros. rewrite <- fmem_In. destruct (fmem l x); split; congruence. Qed.

Lemma fdel_In : forall l x y, In y (fdel l x) <-> In y l /\ y <> x.
Proof.
  intros; unfold fdel; rewrite filter_In, negb_true_iff, fd_eqb_neq. intuition congruence.
Qed.

Lemma fadd_In : forall l x y, In y (fadd l x) <-> y = x \/ In y l.
Proof.
  intros; unfold fadd. destruct (fmem l x) eqn:E.
  - apply fmem_In in E. split; [auto | intros [->|]; auto].
  - cbn. intuition.
Qed.

Lemma fdel_NoDup : forall l x, NoDup l -> NoDup (fdel l x).
Proof. intros; unfold fdel; apply NoDup_filter; auto. Qed.

Lemma fadd_NoDup : forall l x, NoDup l -> NoDup (fadd l x).
Proof.
  intros; unfold fadd. destruct (fmem l x) eqn:E; auto. constructor; auto. apply fmem_false; auto.
Qed.

Lemma nmem_In : forall l x, nmem l x = true <-> In x l.
Proof.
  intros; unfold nmem; rewrite existsb_exists; split.
  - intros [y [Hy He]]. apply N.eqb_eq in He. subst; auto.
  - intros; exists x; split; auto using N.eqb_refl.
Qed.

Lemma nmem_false : forall l x, nmem l x = false <-> ~ In x l.
Proof. intros. rewrite <- nmem_In. destruct (nmem l x); split; congruence. Qed.

Lemma ndel_In : forall l x y, In y (ndel l x) <-> In y l /\ y <> x.
Proof.
  intros; unfold ndel; rewrite filter_In, negb_true_iff, N.eqb_neq. intuition congruence.
Qed.

Lemma ndedup_In : forall l x, In x (ndedup l) <-> In x l.
Proof.
  induction l as [|y l IH]; cbn; intros; [tauto|].
  destruct (nmem l y) eqn:E.
  - rewrite IH. apply nmem_In in E. split; [auto | intros [->|]; auto].
  - cbn. rewrite IH. tauto.
Qed.

Lemma ndedup_NoDup : forall l, NoDup (ndedup l).
Proof.
  induction l as [|y l IH]; cbn; [constructor|].
  destruct (nmem l y) eqn:E; auto. constructor; auto. rewrite ndedup_In. apply nmem_false; auto.
Qed.

Lemma ninsert_In : forall l x y, In y (ninsert x l) <-> y = x \/ In y l.
Proof.
  induction l as [|z l IH]; cbn; intros; [intuition|].
  destruct (x <=? z); cbn; [intuition|]. rewrite IH. intuition.
Qed.

Lemma nsort_In : forall l y, In y (nsort l) <-> In y l.
Proof.
  induction l as [|z l IH]; cbn; intros; [tauto|]. rewrite ninsert_In, IH. intuition.
Qed.

Definition nsorted (l : list N) : Prop := StronglySorted N.le l.

Lemma ninsert_sorted : forall l x, nsorted l -> nsorted (ninsert x l).
Proof.
  unfold nsorted. induction l as [|z l IH]; cbn; intros x H; [repeat constructor|].
  inversion H; subst.
  destruct (x <=? z) eqn:E.
  - apply N.leb_le in E. constructor; auto. constructor; auto.
    rewrite Forall_forall in *. intros y Hy. specialize (H3 y Hy). lia.
  - apply N.leb_gt in E. constructor; auto.
    rewrite Forall_forall in *. intros y Hy. apply ninsert_In in Hy. destruct Hy as [->|Hy]; [lia | auto].
Qed.

Lemma nsort_sorted : forall l, nsorted (nsort l).
Proof. induction l; cbn; [constructor | apply ninsert_sorted; auto]. Qed.

Lemma ninsert_perm : forall l x, Permutation (x :: l) (ninsert x l).
Proof.
  induction l as [|z l IH]; cbn; intros; auto.
  destruct (x <=? z); auto. eapply perm_trans; [apply perm_swap|]. constructor; auto.
Qed.

Lemma nsort_perm : forall l, Permutation l (nsort l).
Proof.
  induction l; cbn; auto. eapply perm_trans; [|apply ninsert_perm]. constructor; auto.
Qed.

Lemma nsort_NoDup : forall l, NoDup l -> NoDup (nsort l).
Proof. intros. eapply Permutation_NoDup; [apply nsort_perm | auto]. Qed.

Lemma nsorted_filter : forall p l, nsorted l -> nsorted (filter p l).
Proof.
  unfold nsorted. intros p l H. induction H; cbn; [constructor|].
  destruct (p a); auto. constructor; auto.
  rewrite Forall_forall in *. intros y Hy. apply filter_In in Hy. apply H0. tauto.
Qed.

(* in a sorted list without repetition an element is strictly below everything behind it *)
Lemma nsorted_head_lt : forall x l, nsorted (x :: l) -> NoDup (x :: l) -> forall y, In y l -> x < y.
Proof.
  unfold nsorted. intros x l Hs Hn y Hy. inversion Hs; subst. inversion Hn; subst.
  rewrite Forall_forall in H2. specialize (H2 y Hy).
  assert (x <> y) by (intro; subst; auto). lia.
Qed.

Lemma jkeep_table : forall s t, jkeep s (FTable, t) = true <-> In t (js_tabs s).
Proof. intros; cbn. apply nmem_In. Qed.

Lemma jkeep_manifest : forall s m, jkeep s (FManifest, m) = true <-> m = js_manifest s.
Proof. intros; cbn. apply N.eqb_eq. Qed.

Lemma jkeep_journal : forall s n, jkeep s (FJournal, n) = true <->
  match js_frozen s with Some z => z <= n | None => js_journal s <= n end.
Proof. intros; cbn. destruct (js_frozen s); apply N.leb_le. Qed.

Lemma jkeep_temp : forall s n, jkeep s (FTemp, n) = false.
Proof. reflexivity. Qed.

(* counting: the listed tables the version names are as many as the version's distinct numbers
   exactly when none is missing *)
Definition listed_tabs (s : jstate) (l : list fd) : list N :=
  map snd (filter (fun f => ftype_eqb (fst f) FTable && nmem (js_tabs s) (snd f)) l).

Lemma listed_tabs_In : forall s l t, In t (listed_tabs s l) <-> In (FTable, t) l /\ In t (js_tabs s).
Proof.
  intros; unfold listed_tabs. rewrite in_map_iff. split.
  - intros [[ty n] [E H]]. cbn in E; subst. apply filter_In in H. destruct H as [H1 H2].
    cbn in H2. apply andb_true_iff in H2. destruct H2 as [H2 H3]. apply ftype_eqb_eq in H2. subst.
    apply nmem_In in H3. auto.
  - intros [H1 H2]. exists (FTable, t). split; auto. apply filter_In. split; auto.
    cbn. apply nmem_In in H2. rewrite H2. reflexivity.
Qed.

Lemma listed_tabs_NoDup : forall s l, NoDup l -> NoDup (listed_tabs s l).
Proof.
  intros s l H. unfold listed_tabs.
  assert (Hf : NoDup (filter (fun f => ftype_eqb (fst f) FTable && nmem (js_tabs s) (snd f)) l))
    by (apply NoDup_filter; auto).
  assert (Ht : forall f, In f (filter (fun f => ftype_eqb (fst f) FTable && nmem (js_tabs s) (snd f)) l) -> fst f = FTable).
  { intros f Hf'. apply filter_In in Hf'. destruct Hf' as [_ E]. apply andb_true_iff in E.
    destruct E as [E _]. apply ftype_eqb_eq in E. auto. }
  revert Hf Ht. generalize (filter (fun f => ftype_eqb (fst f) FTable && nmem (js_tabs s) (snd f)) l).
  induction l0 as [|[ty n] l0 IH]; cbn; intros Hn Ht; [constructor|].
  inversion Hn; subst. constructor.
  - intro Hin. apply in_map_iff in Hin. destruct Hin as [[ty' n'] [E Hin]]. cbn in E; subst.
    assert (ty' = FTable) by (apply (Ht (ty', n)); auto).
    assert (ty = FTable) by (apply (Ht (ty, n)); auto). subst. auto.
  - apply IH; auto.
Qed.

Lemma jan_nt_length : forall s l, jan_nt s l = length (listed_tabs s l).
Proof. intros; unfold jan_nt, listed_tabs. rewrite map_length. reflexivity. Qed.

Lemma jan_count : forall s l, NoDup l ->
  (Nat.eqb (jan_nt s l) (length (ndedup (js_tabs s))) = true <-> forall t, In t (js_tabs s) -> In (FTable, t) l).
Proof.
  intros s l Hl. rewrite Nat.eqb_eq, jan_nt_length.
  assert (Hi : incl (listed_tabs s l) (ndedup (js_tabs s))).
  { intros t Ht. apply listed_tabs_In in Ht. apply ndedup_In. tauto. }
  split.
  - intros E t Ht.
    assert (In t (listed_tabs s l)).
    { apply (NoDup_length_incl (l := listed_tabs s l) (l' := ndedup (js_tabs s))); [apply listed_tabs_NoDup; auto|lia|exact Hi|apply ndedup_In; auto]. }
    apply listed_tabs_In in H. tauto.
  - intros H. apply Nat.le_antisymm.
    + apply NoDup_incl_length; [apply listed_tabs_NoDup; auto | exact Hi].
    + apply NoDup_incl_length; [apply ndedup_NoDup|].
      intros t Ht. rewrite ndedup_In in Ht. apply listed_tabs_In. split; auto.
Qed.

(* the files actually removed by a run of the loop: every call but a failing last one *)
Definition rm_done (calls : list fd) (ok : bool) : list fd := if ok then calls else removelast calls.

Lemma rm_seq_spec : forall rem fs bad, NoDup rem -> incl rem fs ->
  let '(calls, fs', ok) := rm_seq fs rem bad in
  (exists rest, rem = calls ++ rest /\ (ok = true -> rest = [])) /\
  (ok = false -> exists pre f, calls = pre ++ [f] /\ In f bad) /\
  (forall f, In f fs' <-> In f fs /\ ~ In f (rm_done calls ok)).
Proof.
  induction rem as [|f rem IH]; intros fs bad Hn Hi; cbn.
  - split; [exists []; split; auto|]. split; [discriminate|]. intros; tauto.
  - inversion Hn; subst.
    assert (Hf : fmem fs f = true) by (apply fmem_In; apply Hi; left; auto).
    rewrite Hf. cbn. rewrite orb_false_r.
    destruct (fmem bad f) eqn:Eb.
    + split; [exists rem; split; [reflexivity | discriminate]|].
      split.
      * intros _. exists [], f. split; auto. apply fmem_In; auto.
      * intros g; cbn. tauto.
    + assert (Hi' : incl rem (fdel fs f)).
      { intros g Hg. apply fdel_In. split; [apply Hi; right; auto|]. intro; subst; auto. }
      specialize (IH (fdel fs f) bad H2 Hi'). destruct (rm_seq (fdel fs f) rem bad) as [[calls fs'] ok].
      destruct IH as [[rest [E Hok]] [Hbad Hfs]].
      split; [exists rest; split; [cbn; f_equal; auto | auto]|].
      split.
      * intros Hk. destruct (Hbad Hk) as [pre [g [Ec Hg]]]. exists (f :: pre), g. split; auto. cbn. f_equal; auto.
      * intros g. rewrite Hfs, fdel_In.
        assert (Hd : forall x, In x (rm_done (f :: calls) ok) <-> x = f \/ In x (rm_done calls ok)).
        { intros x. unfold rm_done. destruct ok; cbn; [intuition|].
          destruct calls as [|c calls]; cbn.
          - destruct (Hbad eq_refl) as [pre [g' [Ec _]]]. destruct pre; discriminate.
          - intuition. }
        rewrite Hd. intuition congruence.
Qed.

(* the janitor, for every listing: either a table of the version is missing and nothing is touched, or the
   removal list is exactly the complement of jkeep in listing order; running the Remove loop removes only
   files outside jkeep, stops at the first failing call, and if none fails the listing left is exactly the
   part of the old listing that jkeep accepts *)
Lemma janitor_spec : forall s l, NoDup l ->
  match janitor s l with
  | JMissing ts =>
      ts <> [] /\ forall t, In t ts <-> In t (js_tabs s) /\ ~ In (FTable, t) l
  | JRemove rem =>
      (forall t, In t (js_tabs s) -> In (FTable, t) l) /\
      rem = filter (fun f => negb (jkeep s f)) l /\
      forall bad,
        let '(calls, l', ok) := rm_seq l rem bad in
        (forall f, In f calls -> In f l /\ jkeep s f = false) /\
        (forall f, In f l -> jkeep s f = true -> In f l') /\
        (forall f, In f l' -> In f l) /\
        (ok = true -> forall f, In f l' <-> In f l /\ jkeep s f = true) /\
        (ok = false -> exists pre f, calls = pre ++ [f] /\ In f bad)
  end.
Proof.
  intros s l Hl. unfold janitor.
  destruct (Nat.eqb (jan_nt s l) (length (ndedup (js_tabs s)))) eqn:E.
  - rewrite (jan_count s l Hl) in E. split; auto. split; auto. intros bad.
    set (rem := filter (fun f => negb (jkeep s f)) l).
    assert (Hn : NoDup rem) by (apply NoDup_filter; auto).
    assert (Hi : incl rem l) by (intros f Hf; apply filter_In in Hf; tauto).
    pose proof (rm_seq_spec rem l bad Hn Hi) as H.
    destruct (rm_seq l rem bad) as [[calls l'] ok].
    destruct H as [[rest [Er Hok]] [Hbad Hfs]].
    assert (Hc : forall f, In f calls -> In f l /\ jkeep s f = false).
    { intros f Hf. assert (In f rem) by (rewrite Er; apply in_or_app; auto).
      apply filter_In in H. rewrite negb_true_iff in H. auto. }
    assert (Hdone : forall f, In f (rm_done calls ok) -> In f calls).
    { intros f. unfold rm_done. destruct ok; auto. clear. induction calls as [|c calls IH]; cbn; auto.
      destruct calls; cbn in *; [tauto|]. intros [->|H]; auto. }
    split; auto. split.
    { intros f Hf Hk. apply Hfs. split; auto. intro Hd. apply Hdone, Hc in Hd. destruct Hd; congruence. }
    split; [intros f Hf; apply Hfs in Hf; tauto|].
    split; auto.
    intros -> f. rewrite Hfs. unfold rm_done. rewrite (Hok eq_refl), app_nil_r in Er. subst calls.
    unfold rem. rewrite filter_In, negb_true_iff. destruct (jkeep s f); intuition congruence.
  - assert (Hnot : ~ (forall t, In t (js_tabs s) -> In (FTable, t) l)).
    { intro H. rewrite <- (jan_count s l Hl) in H. congruence. }
    assert (Hm : forall t, In t (filter (fun t => negb (fmem l (FTable, t))) (ndedup (js_tabs s))) <->
                 In t (js_tabs s) /\ ~ In (FTable, t) l).
    { intros t. rewrite filter_In, ndedup_In, negb_true_iff, fmem_false. tauto. }
    split; auto.
    intro E0. apply Hnot. intros t Ht.
    destruct (fmem l (FTable, t)) eqn:Em; [apply fmem_In; auto|].
    apply fmem_false in Em. assert (In t []) by (rewrite <- E0; apply Hm; auto). destruct H.
Qed.

Lemma journals_of_In : forall l n, In n (journals_of l) <-> In (FJournal, n) l.
Proof.
  intros; unfold journals_of. rewrite in_map_iff. split.
  - intros [[ty m] [E H]]. cbn in E; subst. apply filter_In in H. destruct H as [H E]. cbn in E.
    apply ftype_eqb_eq in E. subst. auto.
  - intros H. exists (FJournal, n). split; auto. apply filter_In. split; auto.
Qed.

Lemma journals_of_NoDup : forall l, NoDup l -> NoDup (journals_of l).
Proof.
  induction l as [|[ty n] l IH]; cbn; intros H; [constructor|]. inversion H; subst.
  unfold journals_of; cbn. destruct (ftype_eqb ty FJournal) eqn:E; [|apply IH; auto].
  apply ftype_eqb_eq in E. subst. cbn. constructor; [|apply IH; auto].
  intro Hin. apply journals_of_In in Hin. auto.
Qed.

(* the journals replayed are exactly the listed journals the predicate selects, in increasing order, no
   repetition *)
Lemma rj_select_spec : forall jn pj l, NoDup l ->
  (forall n, In n (rj_select jn pj l) <-> In (FJournal, n) l /\ jsel jn pj n = true) /\
  nsorted (rj_select jn pj l) /\ NoDup (rj_select jn pj l).
Proof.
  intros jn pj l Hl. unfold rj_select. split; [|split].
  - intros n. rewrite filter_In, nsort_In, journals_of_In. tauto.
  - apply nsorted_filter, nsort_sorted.
  - apply NoDup_filter, nsort_NoDup, journals_of_NoDup; auto.
Qed.

From GL Require Store.Crash.

(* jsel with an absent prev-journal field (the Go field holds 0) is L2's test "jn <= number", except for
   a journal numbered 0 *)
Lemma jsel_no_prev : forall jn n, n <> 0 -> jsel jn 0 n = (jn <=? n).
Proof. intros. unfold jsel. apply N.eqb_neq in H. rewrite H. apply orb_false_r. Qed.

Definition crash_journals (img : Crash.image) : list Crash.jfile :=
  (match Crash.i_frozen img with Some f => [f] | None => [] end) ++ [Crash.i_live img].

(* L2's recover replays exactly the journals of the image that recoverJournal's predicate selects under the
   journal number the manifest replay yields: "needed for recovery" is what [recover] reads *)
Lemma crash_recover_reads : forall img,
  (forall j, In j (crash_journals img) -> Crash.j_num j <> 0) ->
  let '(jn, sq, tabs) := Crash.replay_man (Crash.i_man img) 0 0 [] in
  Crash.recover_full img =
    fold_left (fun st j => Crash.replay_journal (Crash.j_recs j) (fst st) (snd st))
      (filter (fun j => jsel jn 0 (Crash.j_num j)) (crash_journals img)) (sq, tabs).
Proof.
  intros img H. unfold Crash.recover_full.
  destruct (Crash.replay_man (Crash.i_man img) 0 0 []) as [[jn sq] tabs].
  f_equal. apply filter_ext_in. intros j Hj. symmetry. apply jsel_no_prev. apply H. exact Hj.
Qed.

(* a frozen journal the predicate does not select is irrelevant: removing it leaves recover unchanged *)
Lemma crash_unselected_irrelevant : forall live f man,
  Crash.j_num f <> 0 ->
  (let '(jn, _, _) := Crash.replay_man man 0 0 [] in jsel jn 0 (Crash.j_num f) = false) ->
  Crash.recover_full {| Crash.i_live := live; Crash.i_frozen := Some f; Crash.i_man := man |} =
  Crash.recover_full {| Crash.i_live := live; Crash.i_frozen := None; Crash.i_man := man |}.
Proof.
  intros live f man Hn H. unfold Crash.recover_full; cbn.
  destruct (Crash.replay_man man 0 0 []) as [[jn sq] tabs].
  rewrite jsel_no_prev in H by auto. rewrite H. reflexivity.
Qed.
