(* Store/CrashProofs.v — crash safety of the record-level persistence model: after any history — including
   failed writes, crashes and recoveries, and crashes inside a recovery — recovery of any admissible image
   contains every batch acknowledged as durable, only issued batches, each at most once, in issue order. *)
From GL Require Import Store.Crash.
From GL Require Mem.ListLemmas.
From Coq Require Import Arith Lia.

(* manifest replay as three independent folds *)
Fixpoint last_jn (es : list medit) (d : N) : N :=
  match es with [] => d | e :: r => last_jn r (match m_jnum e with Some j => j | None => d end) end.
Fixpoint last_sq (es : list medit) (d : N) : N :=
  match es with [] => d | e :: r => last_sq r (match m_seq e with Some q => q | None => d end) end.
Definition mtabs (es : list medit) : list batch := concat (map m_tab es).

Lemma replay_man_eq es jn sq tabs :
  replay_man es jn sq tabs = (last_jn es jn, last_sq es sq, tabs ++ mtabs es).
Proof.
  revert jn sq tabs; induction es as [|e r IH]; intros jn sq tabs; cbn [replay_man last_jn last_sq].
  - unfold mtabs; cbn. rewrite app_nil_r. reflexivity.
  - rewrite IH. unfold mtabs. cbn [map concat]. rewrite app_assoc. reflexivity.
Qed.

Lemma last_jn_app es e d : last_jn (es ++ [e]) d = match m_jnum e with Some j => j | None => last_jn es d end.
Proof. revert d; induction es as [|x r IH]; intros d; cbn [app last_jn]; [reflexivity|apply IH]. Qed.
Lemma last_sq_app es e d : last_sq (es ++ [e]) d = match m_seq e with Some q => q | None => last_sq es d end.
Proof. revert d; induction es as [|x r IH]; intros d; cbn [app last_sq]; [reflexivity|apply IH]. Qed.
Lemma mtabs_app es1 es2 : mtabs (es1 ++ es2) = mtabs es1 ++ mtabs es2.
Proof. unfold mtabs. rewrite map_app, concat_app. reflexivity. Qed.
Lemma mtabs_single e : mtabs [e] = m_tab e.
Proof. unfold mtabs. cbn. apply app_nil_r. Qed.

Lemma firstn_app_le {A} (l1 l2 : list A) k : (k <= length l1)%nat -> firstn k (l1 ++ l2) = firstn k l1.
Proof. intros H. rewrite firstn_app. replace (k - length l1)%nat with 0%nat by lia. cbn. apply app_nil_r. Qed.

Lemma firstn_app_all {A} (l1 l2 : list A) k : k = (length l1 + length l2)%nat -> firstn k (l1 ++ l2) = l1 ++ l2.
Proof. intros ->. rewrite <- app_length. apply firstn_all. Qed.

Lemma firstn_le_app {A} (l : list A) k1 k2 : (k1 <= k2)%nat -> exists r, firstn k2 l = firstn k1 l ++ r.
Proof.
  intros H. exists (skipn k1 (firstn k2 l)).
  rewrite <- (firstn_skipn k1 (firstn k2 l)) at 1. rewrite firstn_firstn.
  replace (Nat.min k1 k2) with k1 by lia. reflexivity.
Qed.

Lemma mtabs_firstn_incl es k1 k2 b : (k1 <= k2)%nat -> In b (mtabs (firstn k1 es)) -> In b (mtabs (firstn k2 es)).
Proof.
  intros H Hb. destruct (firstn_le_app es k1 k2 H) as [r ->]. rewrite mtabs_app. apply in_or_app. left; exact Hb.
Qed.

Lemma in_firstn_mono {A} (l : list A) k1 k2 x : (k1 <= k2)%nat -> In x (firstn k1 l) -> In x (firstn k2 l).
Proof. intros H Hx. destruct (firstn_le_app l k1 k2 H) as [r ->]. apply in_or_app. left; exact Hx. Qed.

Lemma firstn_incl_app {A} (l x : list A) k1 k2 b : (k1 <= k2)%nat -> (k1 <= length l)%nat ->
  In b (firstn k1 l) -> In b (firstn k2 (l ++ x)).
Proof.
  intros H1 H2 Hb. destruct (firstn_le_app (l ++ x) k1 k2 H1) as [r ->].
  rewrite (firstn_app_le l x k1 H2). apply in_or_app. left; exact Hb.
Qed.

(* gchain cur l cur': replaying l with running number cur accepts every batch (its first sequence number is
   not below the running number) and ends with a running number <= cur' *)
Fixpoint gchain (cur : N) (l : list batch) (cur' : N) : Prop :=
  match l with
  | [] => cur <= cur'
  | b :: r => cur <= b_seq b /\ 1 <= b_n b /\ gchain (b_seq b + b_n b) r cur'
  end.

Lemma gchain_weaken l : forall c1 c2 e1 e2, gchain c1 l e1 -> c2 <= c1 -> e1 <= e2 -> gchain c2 l e2.
Proof.
  induction l as [|b r IH]; intros c1 c2 e1 e2 H H1 H2; cbn [gchain] in *; [lia|].
  destruct H as (A & B & C). repeat split; [lia|exact B|]. eapply IH; [exact C|lia|exact H2].
Qed.

Lemma gchain_le l : forall c e, gchain c l e -> c <= e.
Proof.
  induction l as [|b r IH]; intros c e H; cbn [gchain] in H; [exact H|].
  destruct H as (A & B & C). apply IH in C. lia.
Qed.

Lemma gchain_app l1 : forall c mid l2 e, gchain c l1 mid -> gchain mid l2 e -> gchain c (l1 ++ l2) e.
Proof.
  induction l1 as [|b r IH]; intros c mid l2 e H1 H2; cbn [gchain app] in *.
  - eapply gchain_weaken; [exact H2|exact H1|lia].
  - destruct H1 as (A & B & C). repeat split; auto. eapply IH; eauto.
Qed.

Lemma gchain_firstn l : forall c e k, gchain c l e -> gchain c (firstn k l) e.
Proof.
  induction l as [|b r IH]; intros c e k H; destruct k as [|k]; cbn [firstn gchain] in *; auto.
  - destruct H as (A & B & C). apply gchain_le in C. lia.
  - destruct H as (A & B & C). repeat split; auto.
Qed.

Lemma gchain_in l : forall c e b, gchain c l e -> In b l -> c <= b_seq b /\ b_seq b + b_n b <= e /\ 1 <= b_n b.
Proof.
  induction l as [|x r IH]; intros c e b H Hb; [destruct Hb|].
  cbn [gchain] in H. destruct H as (A & B & C). destruct Hb as [->|Hb].
  - pose proof (gchain_le _ _ _ C). lia.
  - destruct (IH _ _ _ C Hb) as (P & Q & R). lia.
Qed.

Lemma replay_gchain l : forall cur e acc, gchain cur l e ->
  snd (replay_journal l cur acc) = acc ++ l /\ fst (replay_journal l cur acc) <= e /\ cur <= fst (replay_journal l cur acc).
Proof.
  induction l as [|b r IH]; intros cur e acc H; cbn [replay_journal gchain] in *.
  - cbn. rewrite app_nil_r. repeat split; lia.
  - destruct H as (A & B & C). replace (b_seq b <? cur) with false by (symmetry; apply N.ltb_ge; exact A).
    destruct (IH _ _ (acc ++ [b]) C) as (R1 & R2 & R3). rewrite R1, <- app_assoc. repeat split; [exact R2|lia].
Qed.

(* after replaying a chain the remaining interval is still a (trivial) chain end: the running number reached is
   a valid start for anything that was valid from the chain's end *)
Lemma replay_gchain_end l : forall cur e acc, gchain cur l e ->
  gchain (fst (replay_journal l cur acc)) [] e.
Proof. intros cur e acc H. cbn. apply (replay_gchain l cur e acc H). Qed.

Definition below (cur : N) (l : list batch) : Prop := forall b, In b l -> b_seq b + b_n b <= cur.
Fixpoint sorted_b (l : list batch) : Prop :=
  match l with
  | [] => True
  | a :: r => (forall b, In b r -> b_seq a + b_n a <= b_seq b) /\ sorted_b r
  end.

Lemma gchain_sorted l : forall c e, gchain c l e -> sorted_b l /\ below e l.
Proof.
  induction l as [|b r IH]; intros c e H; cbn [gchain] in H; [split; [exact I|intros ? []]|].
  destruct H as (A & B & C). destruct (IH _ _ C) as [S Bl]. split.
  - split; [|exact S]. intros y Hy. destruct (gchain_in _ _ _ y C Hy). lia.
  - intros y [<-|Hy]; [pose proof (gchain_le _ _ _ C); lia|apply Bl; exact Hy].
Qed.

Lemma sorted_b_app l1 l2 : sorted_b l1 -> sorted_b l2 ->
  (forall a b, In a l1 -> In b l2 -> b_seq a + b_n a <= b_seq b) -> sorted_b (l1 ++ l2).
Proof.
  induction l1 as [|x r IH]; intros H1 H2 H3; cbn [app sorted_b] in *; [exact H2|].
  destruct H1 as [A B]. split.
  - intros y Hy. apply in_app_or in Hy as [Hy|Hy]; [apply A; exact Hy|apply H3; [left; reflexivity|exact Hy]].
  - apply IH; [exact B|exact H2|]. intros a b Ha Hb. apply H3; [right; exact Ha|exact Hb].
Qed.

(* fc, lc: running numbers from which the frozen / the live journal's records are accepted *)
Definition jstart_ok (s : pstate) (fc lc : N) : Prop :=
  match p_frozen s with
  | Some f => gchain fc (j_recs f) lc /\ j_num f + 1 = j_num (p_live s) /\ p_fseq s <= lc /\
              gchain fc (j_recs f) (p_fseq s + 1)
  | None => True
  end /\ gchain lc (j_recs (p_live s)) (p_seq s + 1).

(* what replaying any manifest prefix that contains the durable one yields: tables that form a chain ending
   at some t, with both t and the recorded sequence number not beyond the start of the journals to replay *)
Definition man_ok (s : pstate) (fc lc : N) : Prop :=
  forall k, (p_msynced s <= k <= length (p_man s))%nat ->
    let es := firstn k (p_man s) in
    let jn := last_jn es 0 in let sq := last_sq es 0 in
    exists t, gchain 0 (mtabs es) t /\ t <= sq + 1 /\ jn <= j_num (p_live s) /\
    match p_frozen s with
    | None => sq <= lc /\ t <= lc
    | Some f =>
        if p_fedit s
        then (jn <= j_num f /\ sq <= fc /\ t <= fc) \/
             (jn = j_num (p_live s) /\ sq <= lc /\ t <= lc /\ incl (j_recs f) (mtabs es))
        else jn <= j_num f /\ sq <= fc /\ t <= fc
    end.

(* The invariant of reachable states: manifest and journals replay as one chain ([pi_starts]); the sync marks lie
   within what was written; every acknowledged batch is in the synced part of a journal or of the manifest; every
   batch found in a file was issued. *)
Record pinv (s : pstate) : Prop := {
  pi_starts : exists fc lc, jstart_ok s fc lc /\ man_ok s fc lc /\
      (p_fedit s = true -> last_jn (p_man s) 0 = j_num (p_live s));
  pi_sync_le : (j_synced (p_live s) <= length (j_recs (p_live s)))%nat /\
               (p_msynced s <= length (p_man s))%nat /\ (1 <= p_msynced s)%nat;
  pi_fedit : p_fedit s = true -> p_frozen s <> None;
  pi_acked : forall b, In b (p_acked s) ->
      In b (firstn (j_synced (p_live s)) (j_recs (p_live s))) \/
      (exists f, p_frozen s = Some f /\ In b (firstn (j_synced f) (j_recs f))) \/
      In b (mtabs (firstn (p_msynced s) (p_man s)));
  pi_issued : forall b, (In b (mtabs (p_man s)) \/ In b (j_recs (p_live s)) \/
                         (exists f, p_frozen s = Some f /\ In b (j_recs f))) -> In b (p_issued s)
}.

Ltac psimp := unfold man_ok, jstart_ok in *;
  cbn [p_live p_frozen p_fedit p_fseq p_man p_msynced p_seq p_issued p_acked j_num j_recs j_synced] in *.

Lemma pinv_init : pinv p_init.
Proof.
  constructor; cbn.
  - exists 0, 0. split; [split; [exact I|first [lia | (intros HH; discriminate HH)]]|]. split; [|discriminate].
    intros k Hk. cbn in Hk. assert (k = 1%nat) by lia. subst k. cbn. exists 0. repeat split; first [lia | (intros HH; discriminate HH)].
  - lia.
  - discriminate.
  - intros b [].
  - intros b [[]|[[]|[f [H _]]]]. discriminate.
Qed.

Lemma pinv_write s n sync : pinv s -> pinv (pstep s (PWrite n sync)).
Proof.
  intros H0. pose proof H0 as [[fs [ls [[Hf Hl] [Hm Hj]]]] [S1 [S2 S3]] Hfe Ha Hi]. cbn [pstep].
  destruct (n =? 0) eqn:En; [exact H0|]. apply N.eqb_neq in En.
  set (b := {| b_seq := p_seq s + 1; b_n := n |}).
  constructor; cbn [p_live p_frozen p_fedit p_fseq p_man p_msynced p_seq p_issued p_acked jappend j_num j_recs j_synced].
  - exists fs, ls. split; [split|split].
    + exact Hf.
    + cbn [jappend j_recs]. eapply gchain_app; [exact Hl|]. cbn. repeat split; lia.
    + exact Hm.
    + exact Hj.
  - split; [|split; assumption]. rewrite app_length. cbn [length]. destruct sync; lia.
  - exact Hfe.
  - intros x Hx. destruct sync.
    + apply in_app_or in Hx as [Hx|Hx].
      * destruct (Ha x Hx) as [H1|[H1|H1]]; auto. left.
        eapply firstn_incl_app; [|exact S1|exact H1]. rewrite app_length; cbn; lia.
      * destruct Hx as [<-|[]]. left. rewrite firstn_all. apply in_or_app. right; left; reflexivity.
    + destruct (Ha x Hx) as [H1|[H1|H1]]; auto. left.
      eapply firstn_incl_app; [|exact S1|exact H1]. lia.
  - intros x Hx. apply in_or_app. destruct Hx as [Hx|[Hx|Hx]].
    + left. apply Hi. left; exact Hx.
    + apply in_app_or in Hx as [Hx|[<-|[]]]; [left; apply Hi; right; left; exact Hx|right; left; reflexivity].
    + left. apply Hi. right; right; exact Hx.
Qed.

Lemma pinv_syncj s : pinv s -> pinv (pstep s PSyncJournal).
Proof.
  intros [[fs [ls [[Hf Hl] [Hm Hj]]]] [S1 [S2 S3]] Hfe Ha Hi]. cbn [pstep].
  constructor; cbn [p_live p_frozen p_fedit p_fseq p_man p_msynced p_seq p_issued p_acked j_num j_recs j_synced].
  - exists fs, ls. exact (conj (conj Hf Hl) (conj Hm Hj)).
  - split; [lia|split; assumption].
  - exact Hfe.
  - intros x Hx. destruct (Ha x Hx) as [H1|[H1|H1]]; auto. left. rewrite firstn_all. eapply ListLemmas.in_firstn; exact H1.
  - exact Hi.
Qed.

Lemma pinv_skip s n : pinv s -> pinv (pstep s (PSkipSeq n)).
Proof.
  intros [[fs [ls [[Hf Hl] [Hm Hj]]]] [S1 [S2 S3]] Hfe Ha Hi]. cbn [pstep].
  constructor; cbn [p_live p_frozen p_fedit p_fseq p_man p_msynced p_seq p_issued p_acked j_num j_recs j_synced]; auto.
  exists fs, ls. psimp. split; [split; [exact Hf|eapply gchain_weaken; [exact Hl|lia|lia]]|]. exact (conj Hm Hj).
Qed.

Lemma pinv_rotate s : pinv s -> pinv (pstep s PRotate).
Proof.
  intros H0. pose proof H0 as [[fs [ls [[Hf Hl] [Hm Hj]]]] [S1 [S2 S3]] Hfe Ha Hi]. cbn [pstep].
  destruct (p_frozen s) as [f|] eqn:Fz; [exact H0|].
  constructor; cbn [p_live p_frozen p_fedit p_fseq p_man p_msynced p_seq p_issued p_acked j_num j_recs j_synced].
  - exists ls, (p_seq s + 1). psimp. split; [split; [split; [exact Hl|split; [reflexivity|split; [lia|exact Hl]]]|unfold gchain; lia]|]. split; [|discriminate].
    intros k Hk. specialize (Hm k Hk). rewrite Fz in Hm. cbn zeta in *.
    destruct Hm as (t & M1 & M0 & M2 & M3 & M4). exists t. split; [exact M1|]. split; [exact M0|]. split; [lia|]. auto.
  - split; [cbn; lia|split; assumption].
  - discriminate.
  - intros x Hx. destruct (Ha x Hx) as [H1|[[f [H1 _]]|H1]]; [|congruence|auto].
    right; left. exists (p_live s). split; [reflexivity|exact H1].
  - intros x [Hx|[[]|[f [Hf' Hx]]]]; [apply Hi; left; exact Hx|].
    injection Hf' as <-. apply Hi. right; left; exact Hx.
Qed.

Lemma pinv_flushedit s : pinv s -> pinv (pstep s PFlushEdit).
Proof.
  intros H0. pose proof H0 as [[fs [ls [[Hf Hl] [Hm Hj]]]] [S1 [S2 S3]] Hfe Ha Hi]. cbn [pstep].
  destruct (p_frozen s) as [f|] eqn:Fz; [|exact H0].
  destruct (last (map Some (j_recs f)) None) as [bl|] eqn:L; [|exact H0].
  destruct (p_fedit s) eqn:Fe; [exact H0|].
  destruct Hf as (Hfc & Hfn & Hfq & Hfe2).
  set (e := {| m_jnum := Some (j_num (p_live s)); m_seq := Some (p_fseq s); m_tab := j_recs f |}).
  assert (Full := Hm (length (p_man s)) (conj S2 (le_n _))). psimp. rewrite Fz, Fe, firstn_all in Full. cbn zeta in Full.
  destruct Full as (t & F1 & F0 & F2 & F3 & F4 & F5).
  constructor; cbn [p_live p_frozen p_fedit p_fseq p_man p_msynced p_seq p_issued p_acked].
  - exists fs, ls. split; [split; [split; [exact Hfc|split; [assumption|split; assumption]]|exact Hl]|]. split.
    + psimp. intros k Hk. rewrite app_length in Hk. cbn [length] in Hk. cbn zeta.
      destruct (Nat.eq_dec k (length (p_man s) + 1)) as [->|Hne].
      * rewrite firstn_app_all by reflexivity. rewrite last_jn_app, last_sq_app, mtabs_app. cbn [e m_jnum m_seq].
        rewrite !mtabs_single. cbn [e m_tab]. exists (N.min ls (p_fseq s + 1)).
        split.
        { eapply gchain_app; [exact F1|]. destruct (N.min_spec ls (p_fseq s + 1)) as [[_ ->]|[_ ->]].
          - eapply gchain_weaken; [exact Hfc|exact F5|lia].
          - eapply gchain_weaken; [exact Hfe2|exact F5|lia]. }
        split; [lia|]. split; [lia|]. right. split; [reflexivity|]. split; [exact Hfq|]. split; [lia|].
        intros x Hx. apply in_or_app. right; exact Hx.
      * rewrite firstn_app_le by lia. assert (Hk' : (p_msynced s <= k <= length (p_man s))%nat) by lia.
        specialize (Hm k Hk'). rewrite Fz, Fe in Hm. cbn zeta in Hm. destruct Hm as (t' & M1 & M0 & M2 & M3).
        exists t'. split; [exact M1|]. split; [exact M0|]. split; [exact M2|]. left. exact M3.
    + intros _. rewrite last_jn_app. reflexivity.
  - split; [exact S1|]. split; [rewrite app_length; cbn; lia|exact S3].
  - intros _. congruence.
  - intros x Hx. destruct (Ha x Hx) as [H1|[H1|H1]]; auto. right; right.
    rewrite firstn_app_le by exact S2. exact H1.
  - intros x [Hx|[Hx|[f' [Hf' Hx]]]].
    + rewrite mtabs_app in Hx. apply in_app_or in Hx as [Hx|Hx]; [apply Hi; left; exact Hx|].
      rewrite mtabs_single in Hx. cbn [e m_tab] in Hx.
      apply Hi. right; right. exists f. split; [reflexivity|exact Hx].
    + apply Hi. right; left; exact Hx.
    + apply Hi. right; right. exists f'. split; assumption.
Qed.

Lemma pinv_mansync s : pinv s -> pinv (pstep s PManSync).
Proof.
  intros [[fs [ls [[Hf Hl] [Hm Hj]]]] [S1 [S2 S3]] Hfe Ha Hi]. cbn [pstep].
  constructor; cbn [p_live p_frozen p_fedit p_fseq p_man p_msynced p_seq p_issued p_acked].
  - exists fs, ls. split; [exact (conj Hf Hl)|]. split; [|exact Hj].
    psimp. intros k Hk. apply Hm. lia.
  - split; [exact S1|]. split; [lia|lia].
  - exact Hfe.
  - intros x Hx. destruct (Ha x Hx) as [H1|[H1|H1]]; auto. right; right.
    eapply mtabs_firstn_incl; [exact S2|exact H1].
  - exact Hi.
Qed.

Lemma pinv_compact s : pinv s -> pinv (pstep s PCompactEdit).
Proof.
  intros [[fs [ls [[Hf Hl] [Hm Hj]]]] [S1 [S2 S3]] Hfe Ha Hi]. cbn [pstep].
  set (e := {| m_jnum := None; m_seq := None; m_tab := [] |}).
  constructor; cbn [p_live p_frozen p_fedit p_fseq p_man p_msynced p_seq p_issued p_acked].
  - exists fs, ls. split; [exact (conj Hf Hl)|]. split.
    + psimp. intros k Hk. rewrite app_length in Hk. cbn [length] in Hk. cbn zeta.
      destruct (Nat.eq_dec k (length (p_man s) + 1)) as [->|Hne].
      * rewrite firstn_app_all by reflexivity. rewrite last_jn_app, last_sq_app, mtabs_app. cbn [e m_jnum m_seq].
        rewrite !mtabs_single. cbn [e m_tab]. rewrite !app_nil_r.
        assert (Full := Hm (length (p_man s)) (conj S2 (le_n _))). rewrite firstn_all in Full. exact Full.
      * rewrite firstn_app_le by lia. apply Hm. lia.
    + intros Fe. rewrite last_jn_app. cbn. apply Hj. exact Fe.
  - split; [exact S1|]. split; [rewrite app_length; cbn; lia|exact S3].
  - exact Hfe.
  - intros x Hx. destruct (Ha x Hx) as [H1|[H1|H1]]; auto. right; right.
    rewrite firstn_app_le by exact S2. exact H1.
  - intros x [Hx|Hx]; [|apply Hi; right; exact Hx].
    rewrite mtabs_app, mtabs_single in Hx. cbn [e m_tab] in Hx. rewrite app_nil_r in Hx. apply Hi. left; exact Hx.
Qed.

Lemma pinv_drop s : pinv s -> pinv (pstep s PDropFrozen).
Proof.
  intros H0. pose proof H0 as [[fs [ls [[Hf Hl] [Hm Hj]]]] [S1 [S2 S3]] Hfe Ha Hi]. cbn [pstep].
  match goal with |- pinv (if ?c then _ else _) => destruct c eqn:Cond end; [|exact H0].
  destruct (p_frozen s) as [f|] eqn:Fz.
  2:{ cbn in Cond. destruct (p_fedit s) eqn:Fe; [exfalso; apply (Hfe eq_refl); reflexivity|discriminate]. }
  destruct Hf as (Hfc & Hfn & Hfq & Hfe2).
  assert (Key : forall k, (p_msynced s <= k <= length (p_man s))%nat ->
            exists t, gchain 0 (mtabs (firstn k (p_man s))) t /\ t <= last_sq (firstn k (p_man s)) 0 + 1 /\
            last_jn (firstn k (p_man s)) 0 <= j_num (p_live s) /\ last_sq (firstn k (p_man s)) 0 <= ls /\ t <= ls).
  { intros k Hk. specialize (Hm k Hk). psimp. cbn zeta in Hm. rewrite Fz in Hm. destruct Hm as (t & M1 & M0 & M2 & M3).
    exists t. split; [exact M1|]. split; [exact M0|]. split; [exact M2|].
    apply orb_prop in Cond as [Cond|Cond].
    - destruct (j_recs f) eqn:R; [|discriminate]. cbn in Hfc.
      destruct (p_fedit s); [destruct M3 as [(_ & M3 & M4)|(_ & M3 & M4 & _)]; lia|destruct M3 as (_ & M3 & M4); lia].
    - apply andb_prop in Cond as [Fe Len]. rewrite Fe in M3. apply Nat.eqb_eq in Len.
      assert (k = length (p_man s)) by lia. subst k. rewrite firstn_all in *.
      specialize (Hj Fe). destruct M3 as [(M3 & _)|(_ & M3 & M4 & _)]; lia. }
  constructor; cbn [p_live p_frozen p_fedit p_fseq p_man p_msynced p_seq p_issued p_acked].
  - exists fs, ls. split; [split; [exact I|exact Hl]|]. split; [|discriminate].
    psimp. intros k Hk. cbn zeta. destruct (Key k Hk) as (t & K1 & K0 & K2 & K3 & K4). exists t. auto.
  - auto.
  - discriminate.
  - intros x Hx. destruct (Ha x Hx) as [H1|[[f' [Ef H1]]|H1]]; auto.
    injection Ef as <-. right; right.
    apply orb_prop in Cond as [Cond|Cond].
    + destruct (j_recs f); [rewrite firstn_nil in H1; destruct H1|discriminate].
    + apply andb_prop in Cond as [Fe Len]. apply Nat.eqb_eq in Len. rewrite <- Len, firstn_all.
      assert (Full := Hm (length (p_man s)) (conj S2 (le_n _))). psimp. rewrite Fz, Fe, firstn_all in Full. cbn zeta in Full.
      destruct Full as (t & _ & _ & _ & [(F & _)|(_ & _ & _ & F)]).
      * specialize (Hj Fe). lia.
      * apply F. eapply ListLemmas.in_firstn; exact H1.
  - intros x [Hx|[Hx|[f' [Ef _]]]]; [apply Hi; left; exact Hx|apply Hi; right; left; exact Hx|discriminate].
Qed.

(* A transaction's edit appended to the manifest of a state with no frozen buffer and an empty live journal, with
   any sync mark ms from the old one on, and an acknowledged list that gains the batch only if ms covers the edit:
   ms = the new length and the batch acknowledged is Commit; ms and the list unchanged is a commit that failed
   after the edit reached the file (Store/Faults.v). *)
Lemma pinv_txn_state s n ms a :
  pinv s -> p_frozen s = None -> j_recs (p_live s) = [] -> n <> 0 ->
  (p_msynced s <= ms <= S (length (p_man s)))%nat ->
  let b := {| b_seq := p_seq s + 1; b_n := n |} in
  (forall x, In x a -> In x (p_acked s) \/ (ms = S (length (p_man s)) /\ x = b)) ->
  pinv {| p_live := p_live s; p_frozen := None; p_fedit := false; p_fseq := p_fseq s;
          p_man := p_man s ++ [{| m_jnum := None; m_seq := Some (p_seq s + n); m_tab := [b] |}];
          p_msynced := ms; p_seq := p_seq s + n; p_issued := p_issued s ++ [b]; p_acked := a |}.
Proof.
  intros [[fs [ls [[Hf Hl] [Hm Hj]]]] [S1 [S2 S3]] Hfe Ha Hi] Fz Lr En Hms b Hacc.
  rewrite Lr in Hl. cbn in Hl.
  set (e := {| m_jnum := None; m_seq := Some (p_seq s + n); m_tab := [b] |}).
  assert (Full := Hm (length (p_man s)) (conj S2 (le_n _))). psimp. rewrite Fz, firstn_all in Full. cbn zeta in Full.
  destruct Full as (t & F1 & F0 & F2 & F3 & F4).
  constructor; cbn [p_live p_frozen p_fedit p_fseq p_man p_msynced p_seq p_issued p_acked].
  - exists fs, (p_seq s + n + 1). split; [split; [exact I|psimp; rewrite Lr; cbn; lia]|]. split; [|discriminate].
    psimp. intros k Hk. rewrite app_length in Hk. cbn [length] in Hk. cbn zeta.
    destruct (Nat.eq_dec k (length (p_man s) + 1)) as [->|Hne].
    + rewrite firstn_app_all by reflexivity. rewrite last_jn_app, last_sq_app, mtabs_app, mtabs_single. cbn [e m_jnum m_seq m_tab].
      exists (p_seq s + n + 1). split; [|split; [lia|split; [exact F2|split; lia]]].
      eapply gchain_app; [exact F1|]. cbn. repeat split; lia.
    + rewrite firstn_app_le by lia. assert (Hk' : (p_msynced s <= k <= length (p_man s))%nat) by lia.
      specialize (Hm k Hk'). rewrite Fz in Hm. cbn zeta in Hm. destruct Hm as (t' & M1 & M0 & M2 & M3 & M4).
      exists t'. split; [exact M1|]. split; [exact M0|]. split; [exact M2|]. split; lia.
  - split; [exact S1|]. rewrite app_length. cbn. lia.
  - discriminate.
  - intros x Hx. right; right. destruct (Hacc x Hx) as [Hx'|(-> & ->)].
    + destruct (Ha x Hx') as [H1|[[f' [Ef _]]|H1]]; [rewrite Lr, firstn_nil in H1; destruct H1|congruence|].
      destruct (firstn_le_app (p_man s ++ [e]) (p_msynced s) ms (proj1 Hms)) as [r ->].
      rewrite firstn_app_le by exact S2. rewrite mtabs_app. apply in_or_app. left. exact H1.
    + replace (S (length (p_man s))) with (length (p_man s) + 1)%nat by lia.
      rewrite firstn_app_all by reflexivity. rewrite mtabs_app, mtabs_single. apply in_or_app. right. left. reflexivity.
  - intros x Hx. apply in_or_app. destruct Hx as [Hx|[Hx|[f' [Ef _]]]]; [| |discriminate].
    + rewrite mtabs_app, mtabs_single in Hx. cbn [e m_tab] in Hx.
      apply in_app_or in Hx as [Hx|[<-|[]]]; [left; apply Hi; left; exact Hx|right; left; reflexivity].
    + rewrite Lr in Hx. destruct Hx.
Qed.

Lemma pinv_txn s n : pinv s -> pinv (pstep s (PTxnCommit n)).
Proof.
  intros H0. cbn [pstep].
  destruct (p_frozen s) as [f|] eqn:Fz; [exact H0|].
  destruct (j_recs (p_live s)) as [|r0 rs] eqn:Lr; [|exact H0].
  destruct (n =? 0) eqn:En; [exact H0|]. apply N.eqb_neq in En.
  apply pinv_txn_state; auto.
  - destruct H0 as [_ (_ & S2 & _) _ _ _]. lia.
  - intros x Hx. apply in_app_or in Hx as [Hx|[<-|[]]]; auto.
Qed.

Lemma jprefix_recs j k : j_recs (jprefix j k) = firstn k (j_recs j).
Proof. reflexivity. Qed.

(* the replayed part of the frozen journal as recovery sees it *)
Definition fz_of (jn : N) (img : image) : option jfile :=
  match i_frozen img with
  | Some f => if jn <=? j_num f then Some (all_synced f) else None
  | None => None
  end.

Lemma image_decomp s img : pinv s -> is_image s img ->
  exists jn sq tabs t c1 c2 fr lv,
    replay_man (i_man img) 0 0 [] = (jn, sq, tabs) /\
    lv = j_recs (i_live img) /\ fr = match fz_of jn img with Some f => j_recs f | None => [] end /\
    gchain 0 tabs t /\ t <= sq + 1 /\ sq <= c1 /\ t <= c1 /\ gchain c1 fr c2 /\ gchain c2 lv (p_seq s + 1) /\
    jn <= j_num (i_live img) /\
    (forall f, fz_of jn img = Some f -> jn <= j_num f /\ j_num f + 1 = j_num (i_live img)) /\
    (forall b, In b (p_acked s) -> In b tabs \/ In b fr \/ In b lv) /\
    (forall b, In b tabs \/ In b fr \/ In b lv -> In b (p_issued s)) /\
    tabs = mtabs (i_man img) /\ (1 <= length (i_man img))%nat /\
    (forall b f, p_frozen s = Some f -> In b (firstn (j_synced f) (j_recs f)) -> In b tabs \/ In b fr) /\
    (forall b, In b (mtabs (firstn (p_msynced s) (p_man s))) -> In b tabs).
Proof.
  intros [[fs [ls [[Hf Hl] [Hm Hj]]]] [S1 [S2 S3]] Hfe Ha Hi] [[kl [Hkl Il]] [Ifz [km [Hkm Im]]]].
  rewrite Im, replay_man_eq. cbn [app].
  rewrite <- (ListLemmas.firstn_min km (p_man s)).
  set (k := Nat.min km (length (p_man s))).
  assert (Hk : (p_msynced s <= k <= length (p_man s))%nat) by (unfold k; lia).
  specialize (Hm k Hk). cbn zeta in Hm. destruct Hm as (t & M1 & M0 & M2 & M3).
  set (es := firstn k (p_man s)) in *.
  set (jn := last_jn es 0) in *. set (sq := last_sq es 0) in *.
  assert (Tissued : forall b, In b (mtabs es) -> In b (p_issued s)).
  { intros b Hb. apply Hi. left. unfold es in Hb. rewrite <- (firstn_all (p_man s)).
    eapply mtabs_firstn_incl; [|exact Hb]. lia. }
  assert (TabsAck : forall b, In b (mtabs (firstn (p_msynced s) (p_man s))) -> In b (mtabs es)).
  { intros b Hb. unfold es. eapply mtabs_firstn_incl; [|exact Hb]. lia. }
  assert (LiveIss : forall b, In b (firstn kl (j_recs (p_live s))) -> In b (p_issued s)).
  { intros b Hb. apply Hi. right; left. eapply ListLemmas.in_firstn. exact Hb. }
  assert (Len1 : (1 <= length es)%nat).
  { unfold es. rewrite firstn_length. lia. }
  assert (Liv : j_recs (i_live img) = firstn kl (j_recs (p_live s))) by (rewrite Il; reflexivity).
  assert (LivN : j_num (i_live img) = j_num (p_live s)) by (rewrite Il; reflexivity).
  (* only the part of the frozen journal that recovery replays depends on the case; it starts at c1 *)
  assert (Fr : exists c1 fr, fr = match fz_of jn img with Some f => j_recs f | None => [] end /\
      sq <= c1 /\ t <= c1 /\ gchain c1 fr ls /\
      (forall f, fz_of jn img = Some f -> jn <= j_num f /\ j_num f + 1 = j_num (p_live s)) /\
      (forall b, In b fr -> In b (p_issued s)) /\
      (forall b f, p_frozen s = Some f -> In b (firstn (j_synced f) (j_recs f)) -> In b (mtabs es) \/ In b fr)).
  { unfold fz_of. destruct (p_frozen s) as [f|] eqn:Fz.
    - destruct Hf as (Hfc & Hfn & Hfq & Hfe2).
      assert (Cases : (jn <= j_num f /\ sq <= fs /\ t <= fs) \/
                      (jn = j_num (p_live s) /\ sq <= ls /\ t <= ls /\ incl (j_recs f) (mtabs es))).
      { destruct (p_fedit s); [exact M3|left; exact M3]. }
      destruct (i_frozen img) as [f'|] eqn:IF.
      + destruct Ifz as [kf [Hkf ->]]. cbn [jprefix j_num].
        destruct Cases as [(C1 & C2 & C3)|(C1 & C2 & C3 & C4)].
        * exists fs, (firstn kf (j_recs f)).
          replace (jn <=? j_num f) with true by (symmetry; apply N.leb_le; exact C1).
          cbn [all_synced j_recs jprefix].
          split; [reflexivity|]. split; [exact C2|]. split; [exact C3|]. split; [apply gchain_firstn; exact Hfc|].
          split; [intros f0 E; injection E as <-; cbn; lia|]. split.
          -- intros b Hb. apply Hi. right; right. exists f. split; [reflexivity|eapply ListLemmas.in_firstn; exact Hb].
          -- intros b f0 Ef H1. injection Ef as <-. right. eapply in_firstn_mono; [exact Hkf|exact H1].
        * exists ls, []. replace (jn <=? j_num f) with false by (symmetry; apply N.leb_gt; lia).
          split; [reflexivity|]. split; [exact C2|]. split; [exact C3|]. split; [cbn; lia|].
          split; [discriminate|]. split; [intros b []|].
          intros b f0 Ef H1. injection Ef as <-. left. apply C4. eapply ListLemmas.in_firstn. exact H1.
      + (* the frozen journal file vanished: it had no durable record *)
        exists ls, []. split; [reflexivity|].
        split; [destruct Cases as [(_ & C2 & _)|(_ & C2 & _)]; [pose proof (gchain_le _ _ _ Hfc); lia|exact C2]|].
        split; [destruct Cases as [(_ & _ & C3)|(_ & _ & C3 & _)]; [pose proof (gchain_le _ _ _ Hfc); lia|exact C3]|].
        split; [exact (N.le_refl ls)|]. split; [discriminate|]. split; [intros b []|].
        intros b f0 Ef H1. injection Ef as <-. rewrite Ifz in H1. destruct H1.
    - destruct (i_frozen img) as [f'|]; [destruct Ifz|]. destruct M3 as [M3 M4].
      exists ls, []. split; [reflexivity|]. split; [exact M3|]. split; [exact M4|]. split; [cbn; lia|].
      split; [discriminate|]. split; [intros b []|]. discriminate. }
  destruct Fr as (c1 & fr & Efr & Q1 & T1 & G1 & FZ & FrIss & FrozAck).
  exists jn, sq, (mtabs es), t, c1, ls, fr, (firstn kl (j_recs (p_live s))).
  split; [reflexivity|]. split; [exact (eq_sym Liv)|]. split; [exact Efr|].
  split; [exact M1|]. split; [exact M0|]. split; [exact Q1|]. split; [exact T1|].
  split; [exact G1|]. split; [apply gchain_firstn; exact Hl|].
  split; [lia|]. split; [rewrite LivN; exact FZ|].
  split; [|split; [|split; [reflexivity|split; [exact Len1|split; [exact FrozAck|exact TabsAck]]]]].
  - intros b Hb. destruct (Ha b Hb) as [H1|[[f0 [Ef H1]]|H1]].
    + right; right. eapply in_firstn_mono; [exact Hkl|exact H1].
    + destruct (FrozAck b f0 Ef H1); auto.
    + left. apply TabsAck. exact H1.
  - intros b [Hb|[Hb|Hb]]; [apply Tissued; exact Hb|apply FrIss; exact Hb|apply LiveIss; exact Hb].
Qed.

(* no frozen journal to replay is an empty one *)
Lemma replay_opt (o : option jfile) c acc :
  match o with Some f => replay_journal (j_recs f) c acc | None => (c, acc) end =
  replay_journal (match o with Some f => j_recs f | None => [] end) c acc.
Proof. destruct o; reflexivity. Qed.

Lemma recover_full_eq img jn sq tabs : replay_man (i_man img) 0 0 [] = (jn, sq, tabs) ->
  jn <= j_num (i_live img) ->
  recover_full img =
    let st1 := replay_journal (match fz_of jn img with Some f => j_recs f | None => [] end) sq tabs in
    replay_journal (j_recs (i_live img)) (fst st1) (snd st1).
Proof.
  intros E Hl. unfold recover_full, fz_of. rewrite E.
  assert (L : (jn <=? j_num (i_live img)) = true) by (apply N.leb_le; exact Hl).
  destruct (i_frozen img) as [f|]; cbn [app filter].
  - destruct (jn <=? j_num f); rewrite L; cbn [fold_left fst snd all_synced j_recs]; reflexivity.
  - rewrite L. cbn [fold_left fst snd]. reflexivity.
Qed.

(* Crash safety: for every history of the model — writes with or without sync, failed writes, rotations,
   flushes split into their crash points, transaction commits, compaction edits, and crashes followed by
   recovery (whose own steps are again crash points) — and every admissible crash image of the state it reaches,
   recovery yields a list of batches that (1) contains every batch acknowledged as durable, (2) contains only
   issued batches, (3) is strictly ordered by sequence number: the recovered contents are those of a subset of
   the issued batches applied in their original order, each entirely present or entirely absent. *)
Theorem crash_safe_inv s img : pinv s -> is_image s img ->
  (forall b, In b (p_acked s) -> In b (recover img)) /\
  (forall b, In b (recover img) -> In b (p_issued s)) /\
  sorted_b (recover img).
Proof.
  intros Hi Him.
  destruct (image_decomp s img Hi Him) as (jn & sq & tabs & t & c1 & c2 & fr & lv & E & Elv & Efr & G0 & T0 & Q1 & T1 & G1 & G2 & JL & FZ & Ack & Iss & _ & _ & _ & _).
  unfold recover. rewrite (recover_full_eq img jn sq tabs E JL). cbn zeta. rewrite <- Efr, <- Elv.
  destruct (replay_gchain fr sq c2 tabs ltac:(eapply gchain_weaken; [exact G1|exact Q1|lia])) as (R1 & R1b & _).
  destruct (replay_journal fr sq tabs) as [q1 a1]. cbn [fst snd] in *. subst a1.
  destruct (replay_gchain lv q1 (p_seq s + 1) (tabs ++ fr) ltac:(eapply gchain_weaken; [exact G2|exact R1b|lia])) as (A & _ & _).
  rewrite A. split; [|split].
  - intros b Hb. destruct (Ack b Hb) as [H|[H|H]]; apply in_or_app; [left; apply in_or_app; left; exact H|left; apply in_or_app; right; exact H|right; exact H].
  - intros b Hb. apply Iss. apply in_app_or in Hb as [Hb|Hb]; [apply in_app_or in Hb as [Hb|Hb]; auto|auto].
  - destruct (gchain_sorted _ _ _ G0) as [S0 B0]. destruct (gchain_sorted _ _ _ G1) as [S1 B1]. destruct (gchain_sorted _ _ _ G2) as [S2 _].
    apply sorted_b_app; [apply sorted_b_app; [exact S0|exact S1|]|exact S2|].
    + intros a b Ha Hb. specialize (B0 a Ha). destruct (gchain_in _ _ _ b G1 Hb) as (P & _ & _). lia.
    + intros a b Ha Hb. destruct (gchain_in _ _ _ b G2 Hb) as (P & _ & _).
      apply in_app_or in Ha as [Ha|Ha].
      * specialize (B0 a Ha). pose proof (gchain_le _ _ _ G1). lia.
      * specialize (B1 a Ha). lia.
Qed.

(* the running number reached by replaying a chain is a tight end for it, from any start T below the chain's *)
Lemma replay_tight l : forall c e acc, gchain c l e -> gchain c l (fst (replay_journal l c acc)).
Proof.
  induction l as [|b r IH]; intros c e acc H; cbn [gchain replay_journal] in *; [apply N.le_refl|].
  destruct H as (A & B & C). replace (b_seq b <? c) with false by (symmetry; apply N.ltb_ge; exact A).
  split; [exact A|]. split; [exact B|]. apply (IH _ e). exact C.
Qed.

Lemma replay_tight_from l c e c' T acc : gchain c l e -> c' <= c -> T <= c ->
  gchain T l (N.max T (fst (replay_journal l c' acc))).
Proof.
  intros H Hc HT. destruct l as [|b r]; cbn [gchain replay_journal] in *; [lia|].
  destruct H as (A & B & C). replace (b_seq b <? c') with false by (symmetry; apply N.ltb_ge; lia).
  split; [lia|]. split; [exact B|]. eapply gchain_weaken; [apply (replay_tight r _ e (acc ++ [b])), C|apply N.le_refl|lia].
Qed.

Lemma replay_nil c acc : replay_journal [] c acc = (c, acc).
Proof. reflexivity. Qed.

Lemma mk_image_is_image s kl kf km : pinv s -> is_image s (mk_image s kl kf km).
Proof.
  intros [_ [S1 [S2 S3]] _ _ _]. unfold is_image, mk_image; cbn [i_live i_frozen i_man].
  split; [|split].
  - exists (Nat.max kl (j_synced (p_live s))). split; [lia|reflexivity].
  - destruct (p_frozen s) as [f|]; cbn [option_map]; [|exact I].
    exists (Nat.max kf (j_synced f)). split; [lia|reflexivity].
  - exists (Nat.max km (p_msynced s)). split; [lia|reflexivity].
Qed.

Definition fzm (jn : N) (img : image) (dur : bool) : option jfile :=
  match i_frozen img with
  | Some f => if jn <=? j_num f then Some (if dur then all_synced f else f) else None
  | None => None
  end.

Lemma fzm_recs jn img dur :
  match fzm jn img dur with Some f => j_recs f | None => [] end =
  match fz_of jn img with Some f => j_recs f | None => [] end.
Proof.
  unfold fzm, fz_of. destruct (i_frozen img) as [f|]; [|reflexivity].
  destruct (jn <=? j_num f); [|reflexivity]. destruct dur; reflexivity.
Qed.

Lemma fzm_some jn img dur f : fzm jn img dur = Some f ->
  exists f0, fz_of jn img = Some (all_synced f0) /\ i_frozen img = Some f0 /\ f = (if dur then all_synced f0 else f0).
Proof.
  unfold fzm, fz_of. destruct (i_frozen img) as [f0|]; [|discriminate].
  destruct (jn <=? j_num f0); [|discriminate]. intros H; injection H as <-. exists f0. auto.
Qed.

(* the general restart lemma: dur = true after a crash (any admissible image), dur = false for a clean reopen
   (full image, every manifest edit synced) *)
Lemma pinv_restart_gen s img dur : pinv s -> is_image s img ->
  (dur = false -> img = full_image s /\ length (p_man s) = p_msynced s) ->
  pinv (restart_state s img dur).
Proof.
  intros Hinv Him Hdur.
  destruct (image_decomp s img Hinv Him) as (jn & sq & tabs & t & c1 & c2 & fr & lv & E & Elv & Efr & G0 & T0 & Q1 & T1 & G1 & G2 & JL & FZ & Ack & Iss & Etabs & Len1 & FrozAck & TabsAck).
  pose proof Hinv as [_ [S1 [S2 S3]] _ Ha _].
  unfold restart_state. rewrite E. fold (fzm jn img dur).
  rewrite <- (fzm_recs jn img dur) in Efr.
  set (T := N.max sq t).
  assert (HT : T <= c1 /\ sq <= T /\ t <= T /\ T <= sq + 1) by (unfold T; lia).
  destruct HT as (HT1 & HT2 & HT3 & HT4).
  pose proof (gchain_le _ _ _ G1) as C12.
  rewrite (replay_opt (fzm jn img dur) sq tabs), <- Efr.
  destruct (replay_gchain fr sq c2 tabs ltac:(eapply gchain_weaken; [exact G1|exact Q1|lia])) as (Q3 & Q2 & Q0).
  pose proof (replay_tight_from _ _ _ sq T tabs G1 Q1 HT1) as GF.
  destruct (replay_journal fr sq tabs) as [q1 a1]. cbn [fst snd] in *. subst a1.
  set (A := N.max T q1) in *.
  assert (HA : A <= c2) by (unfold A; lia).
  rewrite <- Elv.
  destruct (replay_gchain lv q1 (p_seq s + 1) (tabs ++ fr) ltac:(eapply gchain_weaken; [exact G2|exact Q2|lia])) as (RA & RB & RC).
  destruct (replay_journal lv q1 (tabs ++ fr)) as [q2 a2] eqn:ER2. cbn [fst snd] in *.
  assert (GL : gchain A lv (q2 + 1)).
  { pose proof (replay_tight_from _ _ _ q1 A (tabs ++ fr) G2 Q2 HA) as X. rewrite ER2 in X.
    eapply gchain_weaken; [exact X|apply N.le_refl|cbn [fst]; lia]. }
  assert (MarkN : forall j : jfile, j_num (if dur then all_synced j else j) = j_num j) by (intros j; destruct dur; reflexivity).
  assert (MarkR : forall j : jfile, j_recs (if dur then all_synced j else j) = j_recs j) by (intros j; destruct dur; reflexivity).
  assert (Msync : (if dur then length (i_man img) else p_msynced s) = length (i_man img)).
  { destruct dur; [reflexivity|]. destruct (Hdur eq_refl) as [-> Hl]. cbn. lia. }
  assert (FZm : forall f, fzm jn img dur = Some f -> jn <= j_num f /\ j_num f + 1 = j_num (i_live img)).
  { intros f EF. destruct (fzm_some _ _ _ _ EF) as (f0 & EF0 & _ & ->). rewrite MarkN. exact (FZ _ EF0). }
  constructor; cbn [p_live p_frozen p_fedit p_fseq p_man p_msynced p_seq p_issued p_acked].
  - exists T, A. split; [|split; [|discriminate]].
    + unfold jstart_ok; cbn [p_live p_frozen p_fseq p_seq]. rewrite MarkR, MarkN.
      split; [|rewrite <- Elv; exact GL].
      destruct (fzm jn img dur) as [f|] eqn:EF; [|exact I].
      destruct (FZm _ eq_refl) as [F1 F2]. rewrite <- Efr. split; [exact GF|]. split; [lia|]. split; [unfold A; lia|].
      eapply gchain_weaken; [exact GF|apply N.le_refl|unfold A; lia].
    + unfold man_ok; cbn [p_live p_frozen p_fedit p_man p_msynced]. rewrite Msync, MarkN.
      intros k Hk. assert (k = length (i_man img)) by lia. subst k. rewrite firstn_all. cbn zeta.
      rewrite replay_man_eq in E. cbn [app] in E. injection E as E1 E2 E3.
      assert (X1 : last_jn (i_man img) 0 = jn) by exact E1.
      assert (X2 : last_sq (i_man img) 0 = sq) by exact E2.
      assert (X3 : mtabs (i_man img) = tabs) by exact E3.
      rewrite X1, X2, X3. exists t. split; [exact G0|]. split; [exact T0|]. split; [exact JL|].
      destruct (fzm jn img dur) as [f|] eqn:EF.
      * destruct (FZm _ eq_refl) as [F1 _]. repeat split; assumption.
      * split; unfold A; lia.
  - rewrite Msync. split; [|split; [lia|exact Len1]].
    destruct dur; [cbn; lia|]. destruct (Hdur eq_refl) as [-> _]. cbn. exact S1.
  - discriminate.
  - intros b Hb. rewrite Msync, firstn_all, <- Etabs.
    destruct dur.
    + (* after a crash everything found is durable *)
      destruct (Ack b Hb) as [H|[H|H]].
      * right; right. exact H.
      * right; left. destruct (fzm jn img true) as [f|] eqn:EF; [|subst fr; destruct H].
        exists f. split; [reflexivity|].
        destruct (fzm_some _ _ _ _ EF) as (f0 & _ & _ & ->). cbn [all_synced j_synced j_recs]. rewrite firstn_all.
        rewrite Efr in H. cbn [all_synced j_recs] in H. exact H.
      * left. cbn [all_synced j_synced j_recs]. rewrite firstn_all, <- Elv. exact H.
    + (* clean reopen: files and sync marks unchanged *)
      destruct (Hdur eq_refl) as [Eimg Hl].
      destruct (Ha b Hb) as [H1|[[f0 [Ef H1]]|H1]].
      * left. rewrite Eimg. cbn. exact H1.
      * destruct (FrozAck b f0 Ef H1) as [H|H]; [right; right; exact H|].
        right; left. destruct (fzm jn img false) as [f|] eqn:EF; [|subst fr; destruct H].
        exists f. split; [reflexivity|].
        destruct (fzm_some _ _ _ _ EF) as (f1 & _ & IF1 & ->).
        rewrite Eimg in IF1. cbn in IF1. rewrite Ef in IF1. injection IF1 as <-. exact H1.
      * right; right. apply TabsAck. exact H1.
  - intros b Hb. apply Iss. destruct Hb as [Hb|[Hb|[f [Ef Hb]]]].
    + left. rewrite Etabs. exact Hb.
    + right; right. rewrite Elv. rewrite MarkR in Hb. exact Hb.
    + right; left. rewrite Efr, Ef. exact Hb.
Qed.

Lemma pinv_restart s kl kf km : pinv s -> pinv (pstep s (PRestart kl kf km)).
Proof.
  intros H. cbn [pstep]. apply pinv_restart_gen; [exact H|apply mk_image_is_image; exact H|discriminate].
Qed.

Lemma jprefix_full j : (j_synced j <= length (j_recs j))%nat -> jprefix j (length (j_recs j)) = j.
Proof.
  intros H. unfold jprefix. rewrite firstn_all. replace (Nat.min (length (j_recs j)) (j_synced j)) with (j_synced j) by lia.
  destruct j; reflexivity.
Qed.

Lemma pinv_reopen s : pinv s -> pinv (pstep s PReopen).
Proof.
  intros H. cbn [pstep]. destruct (Nat.eqb (length (p_man s)) (p_msynced s)) eqn:E; [|exact H].
  apply Nat.eqb_eq in E.
  apply pinv_restart_gen; [exact H| |intros _; split; [reflexivity|exact E]].
  (* the full image is admissible *)
  pose proof H as [[fs [ls [[Hf _] _]]] [S1 [S2 S3]] _ _ _].
  unfold is_image, full_image; cbn [i_live i_frozen i_man].
  split; [|split].
  - exists (length (j_recs (p_live s))). split; [exact S1|]. symmetry. apply jprefix_full. exact S1.
  - destruct (p_frozen s) as [f|] eqn:Fz; [|exact I].
    (* the frozen journal's sync mark is within its records: it was the live journal when it was written *)
    exists (Nat.max (length (j_recs f)) (j_synced f)). split; [lia|].
    unfold jprefix. destruct f as [n r sy]; cbn [j_num j_recs j_synced].
    rewrite firstn_all2 by lia. f_equal. lia.
  - exists (length (p_man s)). split; [exact S2|]. rewrite firstn_all. reflexivity.
Qed.

Lemma pinv_step s o : pinv s -> pinv (pstep s o).
Proof.
  intros H. destruct o.
  - apply pinv_write; exact H.
  - apply pinv_syncj; exact H.
  - apply pinv_rotate; exact H.
  - apply pinv_flushedit; exact H.
  - apply pinv_mansync; exact H.
  - apply pinv_drop; exact H.
  - apply pinv_txn; exact H.
  - apply pinv_compact; exact H.
  - apply pinv_skip; exact H.
  - apply pinv_restart; exact H.
  - apply pinv_reopen; exact H.
Qed.

Lemma pinv_run ops : pinv (prun ops).
Proof.
  unfold prun. assert (G : forall s, pinv s -> pinv (fold_left pstep ops s)).
  { induction ops as [|o ops IH]; intros s H; cbn [fold_left]; [exact H|]. apply IH. apply pinv_step. exact H. }
  apply G. apply pinv_init.
Qed.

Theorem crash_safe ops img : is_image (prun ops) img ->
  (forall b, In b (p_acked (prun ops)) -> In b (recover img)) /\
  (forall b, In b (recover img) -> In b (p_issued (prun ops))) /\
  sorted_b (recover img).
Proof. apply crash_safe_inv. apply pinv_run. Qed.

(* the image that keeps everything written (a clean close) is admissible *)
Lemma clean_close_is_image : forall s, pinv s ->
  is_image s (mk_image s (length (j_recs (p_live s)))
                         (match p_frozen s with Some f => length (j_recs f) | None => 0 end)
                         (length (p_man s))).
Proof. intros s H. apply mk_image_is_image. exact H. Qed.
