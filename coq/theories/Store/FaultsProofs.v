(* Store/FaultsProofs.v — safety of the fault model of Store/Faults.v: the file view and the memory view both
   satisfy the invariant of Store/CrashProofs.v after every step, failing or not; hence every crash image
   (and the clean-close image) of every reachable state recovers every acknowledged batch, only issued
   batches, without sharing of sequence numbers; the guarantee survives dropping errored journal records. *)
From GL Require Import Store.Crash Store.CrashProofs Store.Faults.
From GL Require Mem.ListLemmas.
From Coq Require Import Arith Lia.

Lemma collapse_eq es :
  collapse es = {| m_jnum := Some (last_jn es 0); m_seq := Some (last_sq es 0); m_tab := mtabs es |}.
Proof. unfold collapse. rewrite replay_man_eq. reflexivity. Qed.

Lemma replay_collapse es : replay_man [collapse es] 0 0 [] = replay_man es 0 0 [].
Proof.
  rewrite !replay_man_eq, collapse_eq. cbn [last_jn last_sq m_jnum m_seq]. rewrite mtabs_single. reflexivity.
Qed.

Lemma pinv_collapse_man p : pinv p -> pinv (collapse_man p).
Proof.
  intros [[fs [ls [[Hf Hl] [Hm Hj]]]] [S1 [S2 S3]] Hfe Ha Hi].
  assert (Full := Hm (length (p_man p)) (conj S2 (le_n _))). rewrite firstn_all in Full.
  unfold collapse_man, set_man.
  constructor; cbn [p_live p_frozen p_fedit p_fseq p_man p_msynced p_seq p_issued p_acked].
  - exists fs, ls. split; [exact (conj Hf Hl)|]. split.
    + unfold man_ok; cbn [p_live p_frozen p_fedit p_man p_msynced]. intros k Hk. cbn [length] in Hk.
      assert (k = 1%nat) by lia. subst k. cbn [firstn]. rewrite collapse_eq.
      cbn [last_jn last_sq m_jnum m_seq]. rewrite mtabs_single. cbn [m_tab]. exact Full.
    + intros Fe. rewrite collapse_eq. cbn [last_jn m_jnum]. apply Hj. exact Fe.
  - cbn [length]. split; [exact S1|lia].
  - exact Hfe.
  - intros b Hb. destruct (Ha b Hb) as [H1|[H1|H1]]; auto. right; right.
    cbn [firstn]. rewrite collapse_eq, mtabs_single. cbn [m_tab].
    rewrite <- (firstn_all (p_man p)). eapply mtabs_firstn_incl; [exact S2|exact H1].
  - intros b Hb. apply Hi. destruct Hb as [Hb|Hb]; [left|right; exact Hb].
    rewrite collapse_eq, mtabs_single in Hb. exact Hb.
Qed.

Lemma pinv_set_acked p a : pinv p -> incl a (p_acked p) -> pinv (set_acked p a).
Proof.
  intros [St Sy Hfe Ha Hi] Hin. unfold set_acked. constructor; cbn [p_live p_frozen p_fedit p_fseq p_man p_msynced p_seq p_issued p_acked]; auto.
Qed.

Lemma pinv_txn_ghost p n : pinv p -> pinv (txn_ghost p n).
Proof.
  intros H0. unfold txn_ghost.
  destruct (p_frozen p) as [f|] eqn:Fz; [exact H0|].
  destruct (j_recs (p_live p)) as [|r0 rs] eqn:Lr; [|exact H0].
  destruct (n =? 0) eqn:En; [exact H0|]. apply N.eqb_neq in En.
  apply pinv_txn_state; auto.
  destruct H0 as [_ (_ & S2 & _) _ _ _]. lia.
Qed.

Lemma pinv_drop_unsynced p : pinv p -> pinv (drop_unsynced p).
Proof.
  intros H0. pose proof H0 as [[fs [ls [[Hf Hl] [Hm Hj]]]] [S1 [S2 S3]] Hfe Ha Hi]. unfold drop_unsynced.
  destruct (p_frozen p) as [f|] eqn:Fz; [|exact H0].
  destruct (Nat.eqb (j_synced f) 0 && negb (p_fedit p)) eqn:C; [|exact H0].
  apply andb_prop in C as [C1 C2]. apply Nat.eqb_eq in C1. apply negb_true_iff in C2.
  destruct Hf as (Hfc & Hfn & Hfq & Hfe2). pose proof (gchain_le _ _ _ Hfc) as Fle.
  constructor; cbn [p_live p_frozen p_fedit p_fseq p_man p_msynced p_seq p_issued p_acked].
  - exists fs, ls. split; [split; [exact I|exact Hl]|]. split; [|discriminate].
    psimp. intros k Hk. specialize (Hm k Hk). cbn zeta in *. rewrite Fz, C2 in Hm.
    destruct Hm as (t & M1 & M0 & M2 & M3 & M4 & M5). exists t.
    split; [exact M1|]. split; [exact M0|]. split; [lia|]. split; lia.
  - auto.
  - discriminate.
  - intros x Hx. destruct (Ha x Hx) as [H1|[[f' [Ef H1]]|H1]]; auto.
    injection Ef as <-. rewrite C1 in H1. cbn in H1. destruct H1.
  - intros x [Hx|[Hx|[f' [Ef _]]]]; [apply Hi; left; exact Hx|apply Hi; right; left; exact Hx|discriminate].
Qed.

Lemma drop_unsynced_facts p : p_seq (drop_unsynced p) = p_seq p /\ p_acked (drop_unsynced p) = p_acked p.
Proof.
  unfold drop_unsynced. destruct (p_frozen p) as [f|]; [|split; reflexivity].
  destruct (Nat.eqb (j_synced f) 0 && negb (p_fedit p)); split; reflexivity.
Qed.

Lemma pinv_clear_live p : pinv p -> pinv (clear_live p).
Proof.
  intros H0. pose proof H0 as [[fs [ls [[Hf Hl] [Hm Hj]]]] [S1 [S2 S3]] Hfe Ha Hi]. unfold clear_live.
  destruct (j_recs (p_live p)) as [|x [|y r]] eqn:Lr; [exact H0| |exact H0].
  destruct (Nat.eqb (j_synced (p_live p)) 0) eqn:C; [|exact H0]. apply Nat.eqb_eq in C.
  pose proof (gchain_le _ _ _ Hl) as Lle.
  constructor; cbn [p_live p_frozen p_fedit p_fseq p_man p_msynced p_seq p_issued p_acked j_num j_recs j_synced].
  - exists fs, ls. split; [split|split].
    + unfold jstart_ok in *. cbn [p_frozen p_live p_fseq j_num]. destruct (p_frozen p); exact Hf.
    + cbn. exact Lle.
    + exact Hm.
    + exact Hj.
  - cbn. split; [lia|split; assumption].
  - exact Hfe.
  - intros b Hb. destruct (Ha b Hb) as [H1|[H1|H1]]; auto. rewrite C in H1. cbn in H1. destruct H1.
  - intros b [Hb|[[]|Hb]]; apply Hi; auto.
Qed.

Lemma clear_live_facts p : p_seq (clear_live p) = p_seq p /\ p_acked (clear_live p) = p_acked p.
Proof.
  unfold clear_live. destruct (j_recs (p_live p)) as [|x [|y r]]; try (split; reflexivity).
  destruct (Nat.eqb (j_synced (p_live p)) 0); split; reflexivity.
Qed.

(* every batch found in the files starts at or below the current sequence number *)
Lemma pinv_resident_below p b : pinv p ->
  In b (mtabs (p_man p)) \/ In b (j_recs (p_live p)) \/ (exists f, p_frozen p = Some f /\ In b (j_recs f)) ->
  b_seq b <= p_seq p.
Proof.
  intros [[fs [ls [[Hf Hl] [Hm Hj]]]] [S1 [S2 S3]] Hfe Ha Hi] Hin.
  pose proof (gchain_le _ _ _ Hl) as Lle.
  destruct Hin as [H1|[H1|[f [Ef H1]]]].
  - specialize (Hm (length (p_man p)) (conj S2 (le_n _))). rewrite firstn_all in Hm. cbn zeta in Hm.
    destruct Hm as (t & M1 & M0 & M2 & M3).
    destruct (gchain_in _ _ _ b M1 H1) as (_ & Q & R).
    assert (t <= ls).
    { destruct (p_frozen p) as [f|] eqn:Fz.
      - destruct Hf as (Hfc & _ & _ & _). pose proof (gchain_le _ _ _ Hfc).
        destruct (p_fedit p); [destruct M3 as [(_ & _ & M3)|(_ & _ & M3 & _)]; lia|destruct M3 as (_ & _ & M3); lia].
      - destruct M3; lia. }
    lia.
  - destruct (gchain_in _ _ _ b Hl H1) as (_ & Q & R). lia.
  - rewrite Ef in Hf. destruct Hf as (Hfc & _ & _ & _).
    destruct (gchain_in _ _ _ b Hfc H1) as (_ & Q & R). lia.
Qed.

(* every acknowledged batch is in the files, hence starts at or below the current sequence number *)
Lemma pinv_acked_below p a : pinv p -> In a (p_acked p) -> b_seq a <= p_seq p.
Proof.
  intros H Hin. apply (pinv_resident_below p a H). destruct (pi_acked p H a Hin) as [H1|[(f & Ef & H1)|H1]].
  - right; left. eapply ListLemmas.in_firstn, H1.
  - right; right. exists f. split; [exact Ef|eapply ListLemmas.in_firstn, H1].
  - left. rewrite <- (firstn_all (p_man p)). eapply mtabs_firstn_incl; [apply (pi_sync_le p H)|exact H1].
Qed.

Definition is_restart (o : pop) : bool :=
  match o with PRestart _ _ _ | PReopen => true | _ => false end.

Lemma restart_state_acked s img d : p_acked (restart_state s img d) = p_acked s.
Proof. unfold restart_state. destruct (replay_man (i_man img) 0 0 []) as [[jn sq] tabs]. reflexivity. Qed.

Lemma restart_acked p o : is_restart o = true -> p_acked (pstep p o) = p_acked p.
Proof.
  destruct o; try discriminate; intros _; cbn [pstep]; [apply restart_state_acked|].
  destruct (Nat.eqb (length (p_man p)) (p_msynced p)); [apply restart_state_acked|reflexivity].
Qed.

(* x is in some file of p: a table of the manifest, the live or the frozen journal *)
Definition on_files (p : pstate) (x : batch) : Prop :=
  In x (mtabs (p_man p)) \/ In x (j_recs (p_live p)) \/ (exists f, p_frozen p = Some f /\ In x (j_recs f)).

(* what a step other than a restart may do: raise the sequence number, acknowledge one batch numbered just above
   it, and put into the files nothing but such a batch *)
Definition pframe (p p' : pstate) : Prop :=
  p_seq p <= p_seq p' /\
  (p_acked p' = p_acked p \/ exists n, p_acked p' = p_acked p ++ [{| b_seq := p_seq p + 1; b_n := n |}]) /\
  forall x, on_files p' x -> on_files p x \/ b_seq x = p_seq p + 1.

Lemma pframe_refl p : pframe p p.
Proof. split; [apply N.le_refl|]. split; auto. Qed.

Lemma pstep_frame p o : is_restart o = false -> pframe p (pstep p o).
Proof.
  intros Hr. destruct o; try discriminate Hr; cbn [pstep].
  - destruct (n =? 0); [apply pframe_refl|]. split; [cbn [p_seq]; lia|]. split.
    + destruct sync; cbn [p_acked]; [right; exists n|left]; reflexivity.
    + unfold on_files. cbn [p_man p_live p_frozen jappend j_recs]. intros x [H|[H|H]]; auto.
      apply in_app_or in H as [H|[<-|[]]]; auto.
  - split; [apply N.le_refl|]. split; [auto|]. intros x H. left. exact H.
  - destruct (p_frozen p) as [f|] eqn:Fz; [apply pframe_refl|]. split; [apply N.le_refl|]. split; [auto|].
    unfold on_files. cbn [p_man p_live p_frozen j_recs]. intros x [H|[[]|(f & E & H)]]; auto. injection E as <-. auto.
  - destruct (p_frozen p) as [f|] eqn:Fz; [|apply pframe_refl].
    destruct (last (map Some (j_recs f)) None); [|apply pframe_refl]. destruct (p_fedit p); [apply pframe_refl|].
    split; [apply N.le_refl|]. split; [auto|]. unfold on_files. cbn [p_man p_live p_frozen]. rewrite Fz.
    intros x [H|H]; [|auto]. rewrite mtabs_app, mtabs_single in H. apply in_app_or in H as [H|H]; [auto|].
    left. right. right. exists f. auto.
  - split; [apply N.le_refl|]. split; [auto|]. intros x H. left. exact H.
  - match goal with |- context [if ?c then _ else _] => destruct c end; [|apply pframe_refl].
    split; [apply N.le_refl|]. split; [auto|]. unfold on_files. cbn [p_man p_live p_frozen].
    intros x [H|[H|(f & E & _)]]; [auto|auto|discriminate].
  - destruct (p_frozen p) as [f|] eqn:Fz; [apply pframe_refl|].
    destruct (j_recs (p_live p)) as [|r0 rs] eqn:Lr; [|apply pframe_refl]. destruct (n =? 0); [apply pframe_refl|].
    split; [cbn [p_seq]; lia|]. split; [right; exists n; reflexivity|].
    unfold on_files. cbn [p_man p_live p_frozen]. rewrite Lr. intros x [H|[[]|(f & E & _)]]; [|discriminate].
    rewrite mtabs_app, mtabs_single in H. apply in_app_or in H as [H|[<-|[]]]; auto.
  - split; [apply N.le_refl|]. split; [auto|]. unfold on_files. cbn [p_man p_live p_frozen]. intros x [H|H]; [|auto].
    rewrite mtabs_app, mtabs_single, app_nil_r in H. auto.
  - split; [cbn [p_seq]; lia|]. split; [auto|]. intros x H. left. exact H.
Qed.

Lemma pstep_acked p o :
  p_acked (pstep p o) = p_acked p \/ exists n, p_acked (pstep p o) = p_acked p ++ [{| b_seq := p_seq p + 1; b_n := n |}].
Proof. destruct (is_restart o) eqn:Hr; [left; apply restart_acked, Hr|apply (pstep_frame p o Hr)]. Qed.

Lemma pstep_skip_seq p n : p_seq (pstep p (PSkipSeq n)) = p_seq p + n.
Proof. reflexivity. Qed.

(* the invariant of the fault model: the file view and the memory view each satisfy [pinv] and agree on what was
   acknowledged (and, outside a transaction, on the sequence number); the errored records [f_unknown] start at or
   below both sequence numbers and are never acknowledged *)
Record finv (s : fstate) : Prop := {
  fi_p : pinv (f_p s);
  fi_m : pinv (f_m s);
  fi_ack : p_acked (f_p s) = p_acked (f_m s);
  fi_seq : f_txn s = None -> p_seq (f_p s) = p_seq (f_m s);
  fi_unk : forall u, In u (f_unknown s) ->
      b_seq u <= p_seq (f_p s) /\ b_seq u <= p_seq (f_m s) /\ ~ In u (p_acked (f_p s))
}.

Lemma finv_init : finv f_init.
Proof. constructor; cbn; auto using pinv_init. intros u []. Qed.

(* flags that the invariant does not mention *)
Lemma finv_ext s s' : finv s -> f_p s' = f_p s -> f_m s' = f_m s -> (f_txn s' = None -> f_txn s = None) ->
  f_unknown s' = f_unknown s -> finv s'.
Proof.
  intros [Hp Hm Ha Hs Hu] E1 E2 E3 E4. constructor; rewrite ?E1, ?E2, ?E4; auto.
Qed.

(* an extension of the acknowledged list by a batch numbered above [c] avoids the errored records *)
Lemma unk_avoid s (a' : list batch) c : finv s ->
  (a' = p_acked (f_p s) \/ exists n, a' = p_acked (f_p s) ++ [{| b_seq := c + 1; b_n := n |}]) ->
  (forall u, In u (f_unknown s) -> b_seq u <= c) ->
  forall u, In u (f_unknown s) -> ~ In u a'.
Proof.
  intros [Hp Hm Ha Hs Hu] Hext Hc u Hin. destruct (Hu u Hin) as (_ & _ & U3).
  destruct Hext as [->|[n ->]]; [exact U3|].
  intros X. apply in_app_or in X as [X|[X|[]]]; [exact (U3 X)|]. subst u. specialize (Hc _ Hin). cbn in Hc. lia.
Qed.

Lemma collapse_man_acked p : p_acked (collapse_man p) = p_acked p.
Proof. reflexivity. Qed.

Lemma pstep_acked_incl p o : incl (p_acked p) (p_acked (pstep p o)).
Proof. destruct (pstep_acked p o) as [->|[n ->]]; [apply incl_refl|apply incl_appl, incl_refl]. Qed.


(* [g] is nowhere in the files or buffers of [p], and numbered at or below its sequence number *)
Definition absent (p : pstate) (g : batch) : Prop :=
  b_seq g <= p_seq p /\ ~ In g (mtabs (p_man p)) /\ ~ In g (j_recs (p_live p)) /\
  (forall f, p_frozen p = Some f -> ~ In g (j_recs f)).

Lemma absent_on_files p g : absent p g <-> b_seq g <= p_seq p /\ ~ on_files p g.
Proof.
  unfold absent, on_files. split.
  - intros (A1 & A2 & A3 & A4). split; [exact A1|]. intros [H|[H|(f & E & H)]]; [exact (A2 H)|exact (A3 H)|exact (A4 f E H)].
  - intros (A1 & N). repeat split; auto. intros f E H. apply N. eauto.
Qed.

Lemma absent_frame p p' g : absent p g -> pframe p p' -> absent p' g.
Proof.
  rewrite !absent_on_files. intros (A1 & N) (S & _ & F).
  split; [lia|]. intros H. destruct (F g H) as [H'|E]; [exact (N H')|lia].
Qed.

Lemma absent_pstep p o g : absent p g -> is_restart o = false -> absent (pstep p o) g.
Proof. intros A Hr. exact (absent_frame p _ g A (pstep_frame p o Hr)). Qed.

Lemma pframe_collapse_man p p' : pframe p p' -> pframe p (collapse_man p').
Proof.
  intros (S & A & F). split; [exact S|]. split; [exact A|]. intros x Hx. apply F.
  unfold on_files, collapse_man, set_man in *. cbn [p_man p_live p_frozen] in Hx. rewrite collapse_eq, mtabs_single in Hx. exact Hx.
Qed.

Lemma absent_collapse_man p g : absent p g -> absent (collapse_man p) g.
Proof.
  intros (A1 & A2 & A3 & A4). unfold absent, collapse_man, set_man; cbn [p_seq p_man p_live p_frozen].
  repeat split; auto. rewrite collapse_eq, mtabs_single. exact A2.
Qed.

Lemma absent_drop_unsynced p g : absent p g -> absent (drop_unsynced p) g.
Proof.
  intros (A1 & A2 & A3 & A4). unfold drop_unsynced. destruct (p_frozen p) as [f|] eqn:Fz; [|repeat split; auto; rewrite Fz; exact A4].
  destruct (Nat.eqb (j_synced f) 0 && negb (p_fedit p)); [|repeat split; auto; rewrite Fz; exact A4].
  unfold absent; cbn [p_seq p_man p_live p_frozen]. repeat split; auto. intros f0 E. discriminate E.
Qed.

Lemma absent_set_acked p a g : absent p g -> absent (set_acked p a) g.
Proof. intros H. exact H. Qed.

(* the failed commit's record differs from a commit's only in the sync mark and the acknowledged list *)
Lemma absent_txn_ghost p n g : absent p g -> absent (txn_ghost p n) g.
Proof.
  intros H. pose proof (absent_pstep p (PTxnCommit n) g H eq_refl) as X. cbn [pstep] in X. unfold txn_ghost.
  destruct (p_frozen p); [exact H|]. destruct (j_recs (p_live p)); [|exact H]. destruct (n =? 0); [exact H|exact X].
Qed.

Lemma above_absent p b : pinv p -> p_seq p < b_seq b ->
  ~ In b (mtabs (p_man p)) /\ ~ In b (j_recs (p_live p)) /\ (forall f, p_frozen p = Some f -> ~ In b (j_recs f)).
Proof.
  intros Hp Hlt. split; [|split].
  - intros Hin. pose proof (pinv_resident_below p b Hp (or_introl Hin)). lia.
  - intros Hin. pose proof (pinv_resident_below p b Hp (or_intror (or_introl Hin))). lia.
  - intros f Ef Hin. pose proof (pinv_resident_below p b Hp (or_intror (or_intror (ex_intro _ f (conj Ef Hin))))). lia.
Qed.

Record ginv (s : fstate) : Prop := {
  gi_txn : forall n fl, f_txn s = Some (n, fl) -> n <> 0 /\ (f_mfail s = false -> p_seq (f_p s) = p_seq (f_m s));
  gi_gone : forall g, In g (f_gone s) -> absent (f_p s) g /\ absent (f_m s) g
}.

Lemma ginv_init : ginv f_init.
Proof. constructor; cbn; [discriminate|intros g []]. Qed.

Lemma ginv_flags s s' : ginv s -> f_p s' = f_p s -> f_m s' = f_m s -> f_gone s' = f_gone s ->
  (forall n fl, f_txn s' = Some (n, fl) -> n <> 0 /\ (f_mfail s' = false -> p_seq (f_p s) = p_seq (f_m s))) -> ginv s'.
Proof.
  intros [Gt Gg] E1 E2 E3 Ht. constructor; rewrite ?E1, ?E2, ?E3; auto.
Qed.

Lemma absent_clear_live p g : absent p g -> absent (clear_live p) g.
Proof.
  intros (A1 & A2 & A3 & A4). assert (Habs : absent p g) by (repeat split; assumption). unfold clear_live.
  destruct (j_recs (p_live p)) as [|x [|y r]]; try exact Habs.
  destruct (Nat.eqb (j_synced (p_live p)) 0); [|exact Habs].
  unfold absent; cbn [p_seq p_man p_live p_frozen j_recs]. repeat split; auto.
Qed.

(* what one step keeps: the invariant, everything acknowledged, and the record of the removed tables *)
Definition fok (s s' : fstate) : Prop :=
  finv s' /\ incl (p_acked (f_p s)) (p_acked (f_p s')) /\ (ginv s -> ginv s').

Lemma fok_refl s : finv s -> fok s s.
Proof. intros H. split; [exact H|]. split; [apply incl_refl|exact (fun G => G)]. Qed.

Lemma fok_trans s s1 s2 : fok s s1 -> (finv s1 -> fok s1 s2) -> fok s s2.
Proof.
  intros (H1 & I1 & G1) K. destruct (K H1) as (H2 & I2 & G2).
  split; [exact H2|]. split; [eapply incl_tran; eassumption|exact (fun G => G2 (G1 G))].
Qed.

(* neither invariant reads [f_jfail] or [f_pend]; raising [f_mfail] only releases [gi_txn]'s equation *)
Lemma fok_flags s s1 s' : fok s s1 -> f_p s' = f_p s1 -> f_m s' = f_m s1 -> f_txn s' = f_txn s1 ->
  f_unknown s' = f_unknown s1 -> f_gone s' = f_gone s1 -> (f_mfail s' = false -> f_mfail s1 = false) -> fok s s'.
Proof.
  intros (H1 & I1 & G1) E1 E2 E3 E4 E5 E6. split; [|split].
  - apply (finv_ext s1); [exact H1|exact E1|exact E2|rewrite E3; exact (fun X => X)|exact E4].
  - rewrite E1. exact I1.
  - intros G. pose proof (G1 G) as G'. apply (ginv_flags s1 s' G' E1 E2 E5). rewrite E3. intros n fl T.
    destruct (gi_txn s1 G' n fl T) as [N0 E]. split; [exact N0|]. intros MF. exact (E (E6 MF)).
Qed.

Lemma fok_both s f d : finv s ->
  (forall p, pinv p -> pinv (f p)) -> (forall p, p_seq (f p) = p_seq p + d) ->
  (forall p, p_acked (f p) = p_acked p \/ exists n, p_acked (f p) = p_acked p ++ [{| b_seq := p_seq p + 1; b_n := n |}]) ->
  p_acked (f (f_p s)) = p_acked (f (f_m s)) ->
  (forall p g, absent p g -> absent (f p) g) ->
  fok s (both s f).
Proof.
  intros [Hp Hm Ha Hs Hu] Hpinv Hseq Hack Heq Hab. unfold both. split; [|split].
  - constructor; cbn [f_p f_m f_txn f_unknown]; auto.
    + intros Ht. rewrite !Hseq. rewrite (Hs Ht). reflexivity.
    + intros u Hin. destruct (Hu u Hin) as (U1 & U2 & U3). rewrite !Hseq. split; [lia|]. split; [lia|].
      destruct (Hack (f_p s)) as [->|[n ->]]; [exact U3|].
      intros Hc. apply in_app_or in Hc as [Hc|[Hc|[]]]; [exact (U3 Hc)|]. subst u. cbn in U1. lia.
  - cbn [f_p]. destruct (Hack (f_p s)) as [->|[n ->]]; [apply incl_refl|apply incl_appl, incl_refl].
  - intros [Gt Gg]. constructor; cbn [f_p f_m f_txn f_mfail f_gone].
    + intros n fl T. destruct (Gt n fl T) as [N0 E]. split; [exact N0|]. intros MF. rewrite !Hseq, (E MF). reflexivity.
    + intros g Hin. destruct (Gg g Hin). split; apply Hab; assumption.
Qed.

Lemma fok_both_step s o d : finv s -> is_restart o = false -> (forall p, p_seq (pstep p o) = p_seq p + d) ->
  p_acked (pstep (f_p s) o) = p_acked (pstep (f_m s) o) -> fok s (both s (fun p => pstep p o)).
Proof.
  intros H Hr Hseq Heq.
  apply (fok_both s _ d H); [intros p; apply pinv_step|exact Hseq|intros p; apply pstep_acked|exact Heq|].
  intros p g Hg. apply absent_pstep; [exact Hg|exact Hr].
Qed.

(* both views become [p'], reached from the view [q] by steps that are no restart *)
Lemma fok_committed s q p' txn gone : finv s -> q = f_p s \/ q = f_m s -> pframe q p' -> pinv p' ->
  (forall n fl, txn = Some (n, fl) -> f_txn s = Some (n, fl)) -> (ginv s -> forall g, In g gone -> absent p' g) ->
  fok s (committed s p' txn gone).
Proof.
  intros H Hq (S & A & _) Hp' Ht Hg. pose proof H as [Hp Hm Ha Hs Hu].
  assert (Eq : p_acked q = p_acked (f_p s)) by (destruct Hq as [->| ->]; [reflexivity|symmetry; exact Ha]).
  assert (Uq : forall u, In u (f_unknown s) -> b_seq u <= p_seq q).
  { intros u Hin. destruct (Hu u Hin) as (U1 & U2 & _). destruct Hq as [->| ->]; assumption. }
  rewrite Eq in A. unfold committed. split; [|split].
  - constructor; cbn [f_p f_m f_txn f_unknown]; auto.
    intros u Hin. pose proof (Uq u Hin) as U. assert (b_seq u <= p_seq p') by lia. split; [assumption|]. split; [assumption|].
    exact (unk_avoid s _ (p_seq q) H A Uq u Hin).
  - cbn [f_p]. destruct A as [->|[n ->]]; [apply incl_refl|apply incl_appl, incl_refl].
  - intros G. constructor; cbn [f_p f_m f_txn f_mfail f_gone].
    + intros n fl T. split; [exact (proj1 (gi_txn s G n fl (Ht n fl T)))|reflexivity].
    + intros g Hin. split; exact (Hg G g Hin).
Qed.

Lemma gone_frame s q p' : q = f_p s \/ q = f_m s -> pframe q p' -> ginv s -> forall g, In g (f_gone s) -> absent p' g.
Proof.
  intros Hq F G g Hin. apply (absent_frame q); [|exact F]. destruct (gi_gone s G g Hin). destruct Hq as [->| ->]; assumption.
Qed.

(* a commit that finds manifestFailed: fresh manifest from the memory view *)
Lemma fok_fresh s o txn : finv s -> is_restart o = false ->
  (forall n fl, txn = Some (n, fl) -> f_txn s = Some (n, fl)) -> fok s (fresh s o txn (f_gone s)).
Proof.
  intros H Hr Ht. assert (F : pframe (f_m s) (collapse_man (pstep (f_m s) o))) by apply pframe_collapse_man, pstep_frame, Hr.
  apply (fok_committed s (f_m s)); [exact H|right; reflexivity|exact F|apply pinv_collapse_man, pinv_step, (fi_m s H)|exact Ht|].
  apply (gone_frame s (f_m s)); [right; reflexivity|exact F].
Qed.

Lemma fok_files s o txn : finv s -> is_restart o = false ->
  (forall n fl, txn = Some (n, fl) -> f_txn s = Some (n, fl)) -> fok s (committed s (pstep (f_p s) o) txn (f_gone s)).
Proof.
  intros H Hr Ht. pose proof (pstep_frame (f_p s) o Hr) as F.
  apply (fok_committed s (f_p s)); [exact H|left; reflexivity|exact F|apply pinv_step, (fi_p s H)|exact Ht|].
  apply (gone_frame s (f_p s)); [left; reflexivity|exact F].
Qed.

Lemma batch_eqb_true a b : batch_eqb a b = true -> a = b.
Proof.
  unfold batch_eqb. intros E. apply andb_prop in E as [E1 E2]. apply N.eqb_eq in E1, E2.
  destruct a, b; cbn in *; subst; reflexivity.
Qed.

Lemma fok_restarted s p : finv s -> pinv p -> p_acked p = p_acked (f_p s) -> fok s (restarted p (f_unknown s)).
Proof.
  intros [Hp Hm Ha Hs Hu] H E. unfold restarted. split; [|split].
  - constructor; cbn [f_p f_m f_txn f_unknown]; auto.
    intros u Hin. apply filter_In in Hin as [Hin R]. destruct (Hu u Hin) as (_ & _ & U3).
    assert (B : b_seq u <= p_seq p).
    { apply (pinv_resident_below p u H). unfold resident in R. apply existsb_exists in R as (y & Hy & Ey).
      apply batch_eqb_true in Ey. subst y. apply in_app_or in Hy as [Hy|Hy]; [left; exact Hy|].
      apply in_app_or in Hy as [Hy|Hy]; [right; left; exact Hy|].
      destruct (p_frozen p) as [f|]; [right; right; exists f; split; [reflexivity|exact Hy]|destruct Hy]. }
    rewrite E. auto.
  - cbn [f_p]. rewrite E. apply incl_refl.
  - intros _. constructor; cbn [f_txn f_gone]; [discriminate|intros g []].
Qed.

Lemma edit_noack p o : o = PFlushEdit \/ o = PCompactEdit -> p_acked (pstep p o) = p_acked p /\ p_seq (pstep p o) = p_seq p.
Proof.
  intros [->| ->]; cbn [pstep].
  - destruct (p_frozen p) as [f|]; [|split; reflexivity]. destruct (last (map Some (j_recs f)) None); [|split; reflexivity].
    destruct (p_fedit p); split; reflexivity.
  - split; reflexivity.
Qed.

Lemma fok_append_edit s o : finv s -> o = PFlushEdit \/ o = PCompactEdit -> fok s (append_edit s o).
Proof.
  intros H Ho. unfold append_edit. destruct (f_pend s); [apply fok_refl, H|]. destruct H as [Hp Hm Ha Hs Hu].
  destruct (edit_noack (f_p s) o Ho) as [E1 E2]. split; [|split].
  - constructor; cbn [f_p f_m f_txn f_unknown]; rewrite ?E1, ?E2; auto. apply pinv_step. exact Hp.
  - cbn [f_p]. rewrite E1. apply incl_refl.
  - intros [Gt Gg]. constructor; cbn [f_p f_m f_txn f_mfail f_gone]; rewrite ?E2; [exact Gt|].
    intros g Hin. destruct (Gg g Hin) as [G1 G2]. split; [|exact G2].
    apply absent_pstep; [exact G1|destruct Ho as [-> | ->]; reflexivity].
Qed.

Lemma write_seq p n sync : p_seq (pstep p (PWrite n sync)) = p_seq p + n.
Proof. cbn [pstep]. destruct (n =? 0) eqn:E; cbn [p_seq]; [apply N.eqb_eq in E; lia|reflexivity]. Qed.

Lemma write_acked_eq p q n sync : p_acked p = p_acked q -> p_seq p = p_seq q ->
  p_acked (pstep p (PWrite n sync)) = p_acked (pstep q (PWrite n sync)).
Proof.
  intros E1 E2. cbn [pstep]. destruct (n =? 0); [exact E1|]. destruct sync; cbn [p_acked]; rewrite ?E1, ?E2; reflexivity.
Qed.

Lemma wr_ok_no_txn s : wr_ok s = true -> f_txn s = None.
Proof. unfold wr_ok. destruct (f_txn s); [rewrite andb_false_r; discriminate|reflexivity]. Qed.

Lemma fok_write s n sync : finv s -> wr_ok s = true -> fok s (both s (fun p => pstep p (PWrite n sync))).
Proof.
  intros H W. apply (fok_both_step s _ n H); [reflexivity|intros p; apply write_seq|].
  apply write_acked_eq; [exact (fi_ack s H)|apply (fi_seq s H), wr_ok_no_txn, W].
Qed.

(* an errored journal record: written without sync, never acknowledged, its sequence numbers consumed *)
Lemma fok_errored_record s n : finv s -> wr_ok s = true -> n <> 0 ->
  fok s (add_unknown (both s (fun p => pstep p (PWrite n false))) {| b_seq := p_seq (f_m s) + 1; b_n := n |}).
Proof.
  intros H W Hn. destruct (fok_write s n false H W) as ([Hp' Hm' Ha' Hs' Hu'] & I & G).
  pose proof (fi_seq s H (wr_ok_no_txn s W)) as Eseq. unfold add_unknown. split; [|split; [exact I|]].
  - constructor; cbn [f_p f_m f_txn f_unknown]; auto.
    intros u Hin. apply in_app_or in Hin as [Hin|[<-|[]]]; [auto|]. unfold both. cbn [f_p f_m b_seq].
    rewrite !write_seq. split; [lia|]. split; [lia|].
    cbn [pstep]. destruct (n =? 0) eqn:E; [apply N.eqb_eq in E; contradiction|]. cbn [p_acked].
    intros Hin. pose proof (pinv_acked_below _ _ (fi_p s H) Hin) as Q. cbn in Q. lia.
  - intros G0. destruct (G G0) as [Gt Gg]. constructor; [exact Gt|exact Gg].
Qed.

Lemma skip_max_seq p t : p_seq p <= t -> p_seq (pstep p (PSkipSeq (t - p_seq p))) = t.
Proof. intros H. rewrite pstep_skip_seq. lia. Qed.

Lemma txn_ghost_acked p n : p_acked (txn_ghost p n) = p_acked p.
Proof.
  unfold txn_ghost. destruct (p_frozen p); [reflexivity|]. destruct (j_recs (p_live p)); [|reflexivity].
  destruct (n =? 0); reflexivity.
Qed.
Lemma txn_ghost_seq p n : p_seq p <= p_seq (txn_ghost p n).
Proof.
  unfold txn_ghost. destruct (p_frozen p); [lia|]. destruct (j_recs (p_live p)); [|lia].
  destruct (n =? 0); cbn [p_seq]; lia.
Qed.

Lemma pre_txn_facts s q : p_seq (pre_txn s q) = p_seq q /\ p_acked (pre_txn s q) = p_acked q.
Proof. unfold pre_txn. destruct (errored_live s); [apply clear_live_facts|split; reflexivity]. Qed.

Lemma fok_pre_txn s : finv s -> fok s (both s (pre_txn s)).
Proof.
  intros H. apply (fok_both s _ 0 H).
  - intros p Hpi. unfold pre_txn. destruct (errored_live s); [apply pinv_clear_live|]; exact Hpi.
  - intros p. rewrite (proj1 (pre_txn_facts s p)). lia.
  - intros p. left. apply (proj2 (pre_txn_facts s p)).
  - rewrite !(proj2 (pre_txn_facts s _)). exact (fi_ack s H).
  - intros p g Hg. unfold pre_txn. destruct (errored_live s); [apply absent_clear_live|]; exact Hg.
Qed.

Lemma fstep_ok s o : finv s -> fok s (fstep s o).
Proof.
  intros H. pose proof H as [Hp Hm Ha Hs Hu]. pose proof (fok_refl s H) as R.
  destruct o as [o|n whole|n| |n sync| | |o reached| | |n| |reached|freshok]; cbn [fstep]; try exact R.
  - destruct o as [n sync| | | | | |n| |n|kl kf km|].
    + destruct (wr_ok s) eqn:W; [apply fok_write; assumption|exact R].
    + destruct (f_jfail s); [exact R|]. apply (fok_both_step s _ 0 H); [reflexivity|intros p; cbn; lia|exact Ha].
    + destruct (no_txn s); [|exact R].
      assert (K : fok s (both s (fun p => pstep p PRotate))).
      { apply (fok_both_step s _ 0 H); [reflexivity|intros p; cbn [pstep]; destruct (p_frozen p); cbn [p_seq]; lia|].
        cbn [pstep]. destruct (p_frozen (f_p s)), (p_frozen (f_m s)); cbn [p_acked]; exact Ha. }
      destruct (p_frozen (f_m s)); [exact K|]. apply (fok_flags s _ _ K); try reflexivity. exact (fun X => X).
    + destruct (f_mfail s); [apply fok_fresh; [exact H|reflexivity|auto]|apply fok_append_edit; auto].
    + destruct (f_mfail s); [exact R|apply fok_files; [exact H|reflexivity|auto]].
    + assert (DS : forall q, p_seq (pstep q PDropFrozen) = p_seq q /\ p_acked (pstep q PDropFrozen) = p_acked q).
      { intros q. cbn [pstep]. match goal with |- context [if ?c then _ else _] => destruct c end; split; reflexivity. }
      assert (PS : forall q, p_seq (pre_drop s q) = p_seq q /\ p_acked (pre_drop s q) = p_acked q).
      { intros q. unfold pre_drop. destruct (errored_only s); [apply drop_unsynced_facts|split; reflexivity]. }
      apply (fok_both s _ 0 H).
      * intros p Hpi. apply pinv_step. unfold pre_drop. destruct (errored_only s); [apply pinv_drop_unsynced|]; exact Hpi.
      * intros p. rewrite (proj1 (DS _)), (proj1 (PS _)). lia.
      * intros p. left. rewrite (proj2 (DS _)), (proj2 (PS _)). reflexivity.
      * rewrite !(proj2 (DS _)), !(proj2 (PS _)). exact Ha.
      * intros p g Hg. apply absent_pstep; [|reflexivity]. unfold pre_drop. destruct (errored_only s); [apply absent_drop_unsynced|]; exact Hg.
    + destruct (no_txn s); [|exact R]. cbv zeta. apply (fok_trans s _ _ (fok_pre_txn s H)). intros H0.
      set (s0 := both s (pre_txn s)) in *.
      destruct (f_mfail s0); [apply fok_fresh; [exact H0|reflexivity|discriminate]|].
      destruct (f_pend s0); [apply fok_refl, H0|apply fok_files; [exact H0|reflexivity|discriminate]].
    + destruct (f_mfail s); [apply fok_fresh; [exact H|reflexivity|auto]|apply fok_append_edit; auto].
    + apply (fok_both_step s _ n H); [reflexivity|intros p; reflexivity|exact Ha].
    + apply (fok_restarted s _ H); [apply pinv_step; exact Hp|apply restart_acked; reflexivity].
    + destruct (no_txn s); [|exact R]. apply (fok_restarted s _ H); [apply pinv_step, pinv_collapse_man; exact Hp|].
      rewrite restart_acked by reflexivity. apply collapse_man_acked.
  - destruct (wr_ok s && negb (n =? 0)) eqn:C; [|exact R]. apply andb_prop in C as [W Hn].
    apply negb_true_iff, N.eqb_neq in Hn.
    destruct whole.
    + apply (fok_flags s _ _ (fok_errored_record s n H W Hn)); try reflexivity. exact (fun X => X).
    + assert (K : fok s (both s (fun p => pstep p (PSkipSeq n)))).
      { apply (fok_both_step s _ n H); [reflexivity|intros p; reflexivity|exact Ha]. }
      apply (fok_flags s _ _ K); try reflexivity. exact (fun X => X).
  - destruct (wr_ok s && negb (n =? 0)) eqn:C; [|exact R]. apply andb_prop in C as [W Hn].
    apply negb_true_iff, N.eqb_neq in Hn.
    apply (fok_flags s _ _ (fok_errored_record s n H W Hn)); try reflexivity. exact (fun X => X).
  - destruct (wr_ok s) eqn:W; [|exact R].
    apply (fok_both s _ n H).
    + intros p Hpi. apply pinv_set_acked; [apply pinv_step; exact Hpi|apply pstep_acked_incl].
    + intros p. unfold set_acked. cbn [p_seq]. apply write_seq.
    + intros p. left. reflexivity.
    + exact Ha.
    + intros p g Hg. apply absent_set_acked, absent_pstep; [exact Hg|reflexivity].
  - (* FManFail: manifestFailed is set, the sequence numbers do not move *)
    destruct o; try exact R.
    + destruct (f_mfail s || f_pend s); [exact R|]. destruct reached.
      * apply (fok_flags s _ _ (fok_append_edit s PFlushEdit H (or_introl eq_refl))); try reflexivity. discriminate.
      * apply (fok_flags s _ _ R); try reflexivity. discriminate.
    + destruct (f_mfail s || f_pend s); [exact R|]. destruct reached.
      * apply (fok_flags s _ _ (fok_append_edit s PCompactEdit H (or_intror eq_refl))); try reflexivity. discriminate.
      * apply (fok_flags s _ _ R); try reflexivity. discriminate.
  - cbv zeta. destruct (fok_pre_txn s H) as (H0 & I0 & G0).
    destruct (f_txn s) eqn:T; [exact R|]. destruct (p_frozen (f_m (both s (pre_txn s)))); [exact R|].
    destruct (j_recs (p_live (f_m (both s (pre_txn s))))); [|exact R]. destruct (n =? 0) eqn:En; [exact R|]. apply N.eqb_neq in En.
    split; [|split; [exact I0|]].
    + eapply finv_ext; [exact H0| | | |]; try reflexivity. cbn. discriminate.
    + intros G. apply (ginv_flags _ _ (G0 G)); try reflexivity. cbn [f_txn f_mfail].
      intros n' fl E. injection E as <- <-. split; [exact En|]. intros _. unfold both. cbn [f_p f_m].
      rewrite !(proj1 (pre_txn_facts s _)). apply Hs. reflexivity.
  - destruct (f_txn s) as [[n fl]|] eqn:T; [|exact R].
    destruct (f_mfail s); [apply fok_fresh; [exact H|reflexivity|discriminate]|].
    destruct (f_pend s); [exact R|apply fok_files; [exact H|reflexivity|discriminate]].
  - destruct (f_txn s) as [[n fl]|] eqn:T; [|exact R].
    assert (Tx : forall s', ginv s -> f_txn s' = Some (n, true) -> f_mfail s' = true ->
                 forall n' fl', f_txn s' = Some (n', fl') -> n' <> 0 /\ (f_mfail s' = false -> p_seq (f_p s) = p_seq (f_m s))).
    { intros s' G -> -> n' fl' E. injection E as <- <-. split; [exact (proj1 (gi_txn s G n fl T))|discriminate]. }
    destruct (f_mfail s).
    + split; [|split; [apply incl_refl|]].
      * eapply finv_ext; [exact H| | | |]; try reflexivity. cbn. discriminate.
      * intros G. apply (ginv_flags s _ G); try reflexivity. apply (Tx _ G); reflexivity.
    + destruct (f_pend s); [exact R|]. split; [|split].
      * constructor; cbn [f_p f_m f_txn f_unknown]; auto.
        -- destruct reached; [apply pinv_txn_ghost; exact Hp|exact Hp].
        -- destruct reached; [rewrite txn_ghost_acked|]; exact Ha.
        -- discriminate.
        -- intros u Hin. destruct (Hu u Hin) as (U1 & U2 & U3).
           destruct reached; [rewrite txn_ghost_acked; pose proof (txn_ghost_seq (f_p s) n)|]; repeat split; auto; lia.
      * cbn [f_p]. destruct reached; [rewrite txn_ghost_acked|]; apply incl_refl.
      * intros G. constructor; cbn [f_p f_m f_txn f_mfail f_gone].
        -- intros n' fl' E. injection E as <- <-. split; [exact (proj1 (gi_txn s G n fl T))|discriminate].
        -- intros g Hin. destruct (gi_gone s G g Hin) as [G1 G2]. split; [|exact G2]. destruct reached; [apply absent_txn_ghost|]; exact G1.
  - destruct (f_txn s) as [[n failed]|] eqn:T; [|exact R].
    set (t := N.max (p_seq (f_p s)) (p_seq (f_m s) + (if failed then n else 0))).
    assert (T1 : p_seq (f_p s) <= t) by (unfold t; lia).
    assert (T2 : p_seq (f_m s) <= t) by (unfold t; lia).
    set (b := {| b_seq := p_seq (f_m s) + 1; b_n := n |}).
    set (m1 := pstep (f_m s) (PSkipSeq (t - p_seq (f_m s)))).
    set (p1 := pstep (f_p s) (PSkipSeq (t - p_seq (f_p s)))).
    assert (Sm : p_seq m1 = t) by (apply skip_max_seq; exact T2).
    assert (Sp : p_seq p1 = t) by (apply skip_max_seq; exact T1).
    assert (Pm : pinv m1) by (apply pinv_step; exact Hm).
    assert (Pp : pinv p1) by (apply pinv_step; exact Hp).
    (* both views skip to [t]; the removed table [b] of a failed commit is numbered above the memory view *)
    assert (Base : forall jf mf pd gn, (ginv s -> forall g, In g gn -> absent p1 g /\ absent m1 g) ->
      fok s {| f_p := p1; f_m := m1; f_jfail := jf; f_mfail := mf; f_pend := pd; f_txn := None; f_unknown := f_unknown s; f_gone := gn |}).
    { intros jf mf pd gn Hgn. split; [|split; [apply incl_refl|]].
      - constructor; cbn [f_p f_m f_txn f_unknown]; auto.
        + intros _. rewrite Sm, Sp. reflexivity.
        + intros u Hin. destruct (Hu u Hin) as (U1 & U2 & U3). rewrite Sm, Sp. repeat split; auto; lia.
      - intros G. constructor; cbn [f_p f_m f_txn f_mfail f_gone]; [discriminate|exact (Hgn G)]. }
    assert (Old : ginv s -> forall g, In g (f_gone s) -> absent p1 g /\ absent m1 g).
    { intros G g Hin. destruct (gi_gone s G g Hin). split; apply absent_pstep; auto. }
    assert (Bm : ginv s -> failed = true -> absent m1 b).
    { intros G ->. pose proof (proj1 (gi_txn s G n true T)) as N0. destruct (above_absent (f_m s) b Hm ltac:(cbn; lia)) as (X1 & X2 & X3).
      unfold absent. rewrite Sm. split; [unfold t; cbn; lia|]. auto. }
    destruct failed; [|apply Base, Old]. destruct (f_mfail s) eqn:MF.
    + destruct freshok; [|apply Base, Old].
      assert (F : pframe (f_m s) (collapse_man m1)) by (apply pframe_collapse_man, pstep_frame; reflexivity).
      apply (fok_committed s (f_m s)); [exact H|right; reflexivity|exact F|apply pinv_collapse_man, Pm|discriminate|].
      intros G g Hin. apply in_app_or in Hin as [Hin|[<-|[]]]; [|apply absent_collapse_man, (Bm G); reflexivity].
      apply (gone_frame s (f_m s)); [right; reflexivity|exact F|exact G|exact Hin].
    + apply Base. intros G g Hin. apply in_app_or in Hin as [Hin|[<-|[]]]; [apply (Old G g Hin)|]. split; [|apply (Bm G); reflexivity].
      (* no manifestFailed: the files were rebuilt from memory after the failure, both views number alike *)
      destruct (gi_txn s G n true T) as [N0 Eq]. specialize (Eq MF).
      destruct (above_absent (f_p s) b Hp ltac:(cbn; lia)) as (X1 & X2 & X3).
      unfold absent. rewrite Sp. split; [unfold t; cbn; lia|]. auto.
Qed.

Theorem finv_step s o : finv s -> finv (fstep s o).
Proof. intros H. apply (fstep_ok s o H). Qed.

Theorem acked_monotone s o : finv s -> incl (p_acked (f_p s)) (p_acked (f_p (fstep s o))).
Proof. intros H. apply (fstep_ok s o H). Qed.

Theorem ginv_step s o : finv s -> ginv s -> ginv (fstep s o).
Proof. intros H. apply (fstep_ok s o H). Qed.

Lemma frun_ok s ops : finv s -> fok s (frun_from s ops).
Proof.
  unfold frun_from. revert s. induction ops as [|o ops IH]; intros s H; cbn [fold_left]; [apply fok_refl, H|].
  apply (fok_trans s _ _ (fstep_ok s o H)), IH.
Qed.

Theorem finv_run_from s ops : finv s -> finv (frun_from s ops).
Proof. intros H. apply (frun_ok s ops H). Qed.

Theorem finv_run ops : finv (frun ops).
Proof. apply finv_run_from. apply finv_init. Qed.

Lemma sublist_refl {A} (l : list A) : sublist l l.
Proof. induction l; constructor; assumption. Qed.

Lemma sublist_in {A} (l1 l2 : list A) x : sublist l1 l2 -> In x l1 -> In x l2.
Proof.
  induction 1 as [|y l1 l2 _ IH|y l1 l2 _ IH]; intros Hin; [exact Hin|right; apply IH; exact Hin|].
  destruct Hin as [->|Hin]; [left; reflexivity|right; apply IH; exact Hin].
Qed.

Lemma sorted_b_sublist l1 l2 : sublist l1 l2 -> sorted_b l2 -> sorted_b l1.
Proof.
  induction 1 as [|y l1 l2 Hs IH|y l1 l2 Hs IH]; intros S; cbn [sorted_b] in *; [exact I|apply IH; apply S|].
  destruct S as [S1 S2]. split; [|apply IH; exact S2].
  intros b Hb. apply S1. eapply sublist_in; [exact Hs|exact Hb].
Qed.

Lemma batch_eq_dec (a b : batch) : {a = b} + {a <> b}.
Proof.
  destruct a as [s1 n1], b as [s2 n2].
  destruct (N.eq_dec s1 s2) as [->|N1]; [|right; intros E; injection E; intros; contradiction].
  destruct (N.eq_dec n1 n2) as [->|N2]; [left; reflexivity|right; intros E; injection E; intros; contradiction].
Qed.

(* For every state satisfying the invariant and every admissible image of its files: whatever list L a
   recovery returns that differs from the model's recovery only by missing errored journal records, L holds
   every acknowledged batch, only issued batches, strictly ordered by sequence number. *)
Theorem faults_safe_inv s img L : finv s -> is_image (f_p s) img ->
  sublist L (recover img) -> (forall b, In b (recover img) -> ~ In b L -> In b (f_unknown s)) ->
  (forall b, In b (p_acked (f_p s)) -> In b L) /\
  (forall b, In b L -> In b (p_issued (f_p s))) /\
  sorted_b L.
Proof.
  intros H Him Hsub Hdrop. pose proof H as [Hp Hm Ha Hs Hu].
  destruct (crash_safe_inv (f_p s) img Hp Him) as (C1 & C2 & C3).
  split; [|split].
  - intros b Hb. destruct (in_dec batch_eq_dec b L) as [Hin|Hnin]; [exact Hin|].
    exfalso. destruct (Hu b (Hdrop b (C1 b Hb) Hnin)) as (_ & _ & U3). exact (U3 Hb).
  - intros b Hb. apply C2. eapply sublist_in; [exact Hsub|exact Hb].
  - eapply sorted_b_sublist; [exact Hsub|exact C3].
Qed.

Theorem faults_safe ops img L : is_image (f_p (frun ops)) img ->
  sublist L (recover img) -> (forall b, In b (recover img) -> ~ In b L -> In b (f_unknown (frun ops))) ->
  (forall b, In b (p_acked (f_p (frun ops))) -> In b L) /\
  (forall b, In b L -> In b (p_issued (f_p (frun ops)))) /\
  sorted_b L.
Proof. apply faults_safe_inv. apply finv_run. Qed.

(* the model's own recovery is one such list *)
Corollary faults_safe_max ops img : is_image (f_p (frun ops)) img ->
  (forall b, In b (p_acked (f_p (frun ops))) -> In b (recover img)) /\
  (forall b, In b (recover img) -> In b (p_issued (f_p (frun ops)))) /\
  sorted_b (recover img).
Proof.
  intros Him. apply (faults_safe ops img (recover img) Him (sublist_refl _)). intros b Hb Hn. contradiction.
Qed.

(* heal + clean close: the image that keeps every written byte is admissible *)
Theorem faults_clean_close_is_image ops :
  let p := f_p (frun ops) in
  is_image p (mk_image p (length (j_recs (p_live p))) (match p_frozen p with Some f => length (j_recs f) | None => 0%nat end)
                         (length (p_man p))).
Proof. cbn zeta. apply clean_close_is_image. apply (fi_p _ (finv_run ops)). Qed.

Theorem acked_monotone_run s ops : finv s -> incl (p_acked (f_p s)) (p_acked (f_p (frun_from s ops))).
Proof. intros H. apply (frun_ok s ops H). Qed.

(* a synced write that the model lets succeed is acknowledged at once *)
Theorem sync_write_acked s n : wr_ok s = true -> n <> 0 -> fres s (FOk (PWrite n true)) = ROk /\
  In {| b_seq := p_seq (f_p s) + 1; b_n := n |} (p_acked (f_p (fstep s (FOk (PWrite n true))))).
Proof.
  intros W Hn. cbn [fres fstep]. rewrite W. split; [reflexivity|]. unfold both. cbn [f_p pstep].
  destruct (n =? 0) eqn:E; [apply N.eqb_eq in E; contradiction|]. cbn [p_acked]. apply in_or_app. right; left; reflexivity.
Qed.

Lemma last_map_some {A} (l : list A) : l <> [] -> last (map Some l) None <> None.
Proof.
  induction l as [|x r IH]; [congruence|]. intros _. destruct r as [|y r']; [cbn; discriminate|].
  change (last (map Some (x :: y :: r')) None) with (last (map Some (y :: r')) None). apply IH. discriminate.
Qed.

Lemma flush_ensures q f : p_frozen (pstep q PFlushEdit) = Some f -> j_recs f <> [] -> p_fedit (pstep q PFlushEdit) = true.
Proof.
  cbn [pstep]. destruct (p_frozen q) as [g|] eqn:Fz.
  - destruct (last (map Some (j_recs g)) None) eqn:L.
    + destruct (p_fedit q) eqn:Fe; [intros _ _; exact Fe|]. intros _ _. reflexivity.
    + rewrite Fz. intros E Hne. injection E as <-. exfalso. exact (last_map_some _ Hne L).
  - rewrite Fz. discriminate.
Qed.

Lemma drop_after_sync q : (forall f, p_frozen q = Some f -> j_recs f <> [] -> p_fedit q = true) ->
  p_frozen (pstep (pstep q PManSync) PDropFrozen) = None.
Proof.
  intros Hq. cbn [pstep p_frozen p_fedit p_man p_msynced]. rewrite Nat.eqb_refl.
  destruct (p_frozen q) as [f|] eqn:Fz.
  - destruct (j_recs f) as [|r0 rs] eqn:R; [reflexivity|].
    rewrite (Hq f eq_refl ltac:(rewrite R; discriminate)). reflexivity.
  - cbn [orb]. destruct (p_fedit q); cbn [andb]; reflexivity.
Qed.

Lemma drop_none q : p_frozen q = None -> p_frozen (pstep q PDropFrozen) = None.
Proof.
  intros E. cbn [pstep]. match goal with |- context [if ?c then _ else _] => destruct c end; [reflexivity|exact E].
Qed.

Lemma drop_unsynced_cases q : drop_unsynced q = q \/ p_frozen (drop_unsynced q) = None.
Proof.
  unfold drop_unsynced. destruct (p_frozen q) as [f|] eqn:Fz; [|left; reflexivity].
  destruct (Nat.eqb (j_synced f) 0 && negb (p_fedit q)); [right; reflexivity|left; reflexivity].
Qed.

Lemma pre_drop_after_sync s X : (forall f, p_frozen X = Some f -> j_recs f <> [] -> p_fedit X = true) ->
  p_frozen (pstep (pre_drop s (pstep X PManSync)) PDropFrozen) = None.
Proof.
  intros HX. unfold pre_drop. destruct (errored_only s); [|apply drop_after_sync; exact HX].
  destruct (drop_unsynced_cases (pstep X PManSync)) as [-> |E]; [apply drop_after_sync; exact HX|apply drop_none; exact E].
Qed.

Lemma discard_no_txn s b : f_txn (fstep s (FTxnDiscard b)) = None.
Proof.
  cbn [fstep]. destruct (f_txn s) as [[n failed]|] eqn:T; [|exact T].
  destruct failed; [destruct (f_mfail s); [destruct b|]|]; reflexivity.
Qed.

(* The DB stays usable: from ANY state (whatever failed before), once no fault is active, discarding the open
   transaction, finishing the pending commit and flush, and rotating the journal lead to a state that accepts and
   acknowledges a synced write. *)
Theorem usable_after_faults s : wr_ok (frun_from s (removelast heal_ops)) = true.
Proof.
  unfold heal_ops, frun_from. cbn [removelast fold_left].
  pose proof (discard_no_txn s true) as T1. set (s1 := fstep s (FTxnDiscard true)) in *.
  (* the four commit steps end with both views equal to a synced state whose flush edit is in place *)
  assert (K : exists X, (forall f, p_frozen X = Some f -> j_recs f <> [] -> p_fedit X = true) /\
            let s4 := fstep (fstep (fstep s1 (FOk PManSync)) (FOk PFlushEdit)) (FOk PManSync) in
            f_m s4 = pstep X PManSync /\ f_p s4 = pstep X PManSync /\ f_txn s4 = None).
  { cbn [fstep]. destruct (f_mfail s1) eqn:MF.
    - (* manifestFailed: the flush commit writes a fresh manifest *)
      rewrite MF. unfold fresh, committed. cbn [f_mfail f_p f_m f_txn].
      exists (collapse_man (pstep (f_m s1) PFlushEdit)). split; [|auto].
      intros f Hf Hne. change (p_frozen (collapse_man (pstep (f_m s1) PFlushEdit))) with (p_frozen (pstep (f_m s1) PFlushEdit)) in Hf.
      change (p_fedit (collapse_man (pstep (f_m s1) PFlushEdit))) with (p_fedit (pstep (f_m s1) PFlushEdit)).
      eapply flush_ensures; eassumption.
    - unfold committed at 3. cbn [f_mfail]. unfold append_edit. cbn [f_pend committed f_p f_m f_mfail f_txn].
      exists (pstep (pstep (f_p s1) PManSync) PFlushEdit). split; [|auto].
      intros f Hf Hne. eapply flush_ensures; eassumption. }
  destruct K as (X & HX & K). cbn zeta in K. destruct K as (K1 & K2 & K3).
  set (s4 := fstep (fstep (fstep s1 (FOk PManSync)) (FOk PFlushEdit)) (FOk PManSync)) in *.
  clearbody s4. cbn [fstep]. unfold no_txn, both. cbn [f_txn f_m f_p]. rewrite K3, K1.
  rewrite (pre_drop_after_sync s4 X HX). unfold wr_ok, set_jfail. cbn [f_jfail f_txn]. rewrite ?K3. reflexivity.
Qed.

(* so the write that follows is acknowledged *)
Corollary usable_write_acked s :
  let s' := frun_from s (removelast heal_ops) in
  fres s' (FOk (PWrite 1 true)) = ROk /\
  In {| b_seq := p_seq (f_p s') + 1; b_n := 1 |} (p_acked (f_p (fstep s' (FOk (PWrite 1 true))))).
Proof. cbn zeta. apply sync_write_acked; [apply usable_after_faults|discriminate]. Qed.

Theorem ginv_run ops : ginv (frun ops).
Proof. apply (frun_ok f_init ops finv_init), ginv_init. Qed.

(* Open never finds the manifest naming a removed table: recovery of every admissible image succeeds *)
Theorem recovery_succeeds ops img : is_image (f_p (frun ops)) img ->
  frecover (frun ops) img = Some (recover img).
Proof.
  intros Him. unfold frecover. destruct (names_gone (frun ops) img) eqn:N; [exfalso|reflexivity].
  unfold names_gone in N. apply existsb_exists in N as (g & Hg & N). apply existsb_exists in N as (x & Hx & E).
  apply batch_eqb_true in E. subst x.
  destruct (gi_gone _ (ginv_run ops) g Hg) as [(_ & A2 & _) _].
  destruct Him as (_ & _ & k & _ & E). rewrite E in Hx. apply A2.
  change (concat (map m_tab (firstn k (p_man (f_p (frun ops)))))) with (mtabs (firstn k (p_man (f_p (frun ops))))) in Hx.
  rewrite <- (firstn_all (p_man (f_p (frun ops)))).
  destruct (Nat.le_gt_cases k (length (p_man (f_p (frun ops))))) as [Hle|Hgt].
  - eapply mtabs_firstn_incl; [exact Hle|exact Hx].
  - rewrite firstn_all. rewrite firstn_all2 in Hx by lia. exact Hx.
Qed.

