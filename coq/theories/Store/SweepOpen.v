(* Store/SweepOpen.v — Open in the step machine of Store/Sweep.v: the invariant InvO of its intermediate states, what
   Open leaves on storage (open_db_spec), every step keeps Good (step_Good, run_Good), and no Remove call of any run
   hits a file that is needed at that moment (never_remove_needed). *)
From Coq Require Import NArith PeanoNat List Bool Lia.
From GL Require Import Store.Sweep Store.SweepProofs Store.SweepInv Store.SweepSteps.
Import ListNotations.
Open Scope N_scope.

Local Arguments tset : simpl never.
Local Arguments fdel : simpl never.

(* what holds between session.recover and the end of the janitor *)
Record InvO (s : st) : Prop := {
  o_fl : NoDup (files s);
  o_k : NoDup (map fst (tb s));
  o_cls : forall t c, tget (tb s) t = Some c -> (c = CTab \/ c = COut KFlush) /\ t < next s;
  o_held : held s = [];
  o_pins : pins s = [];
  o_mf : mfailed s = false;
  o_fz : frozen s = None;
  o_fd : fdone s = false;
  o_fe : fempty s = false;
  o_jobs : jf s = job_off /\ jc s = job_off /\ jt s = job_off;
  o_t : IT (trace s);
  o_op : opened s = false;
  o_v : exists v, views s = [v] /\ man s = Some (v_man v) /\ v_man v < next s /\ view_wf v /\
        (forall t, In t (v_tabs v) -> t < next s) /\
        (hasman s = true ->
           v_prev v = None /\ (forall t, In t (v_tabs v) <-> tget (tb s) t = Some CTab) /\
           sjnum s = v_jnum v /\ (forall t c, tget (tb s) t = Some c -> t <> v_man v) /\
           In (FManifest, v_man v) (files s)) }.

Lemma InvO_InvC : forall s, InvO s -> InvC s.
Proof.
  intros s H. constructor; try apply H.
  destruct (o_v s H) as [v [Ev (_&_&W&_)]]. intros v0 Hv0. rewrite Ev in Hv0. destruct Hv0 as [ <- |[]]. auto.
Qed.

Lemma do_rm_InvO : forall f ok why s, InvO s -> (needed s f = false \/ f = (FJournal, 0)) ->
  InvO (fst (do_rm f ok why s)).
Proof.
  intros f ok why s H Hn. destruct (do_rm_form f ok why s) as (fl & r & -> & Hfl).
  constructor; cbn; try apply H.
  - destruct Hfl as [->| ->]; [|apply fdel_NoDup]; apply (o_fl s H).
  - apply IT_cons; auto. apply H.
  - destruct (o_v s H) as [v (Ev&Em&Lm&W&Lt&Hh)]. exists v.
    split; auto. split; auto. split; auto. split; auto. split; auto.
    intros Hm. destruct (Hh Hm) as (P1&P2&P3&P4&P5). split; auto. split; auto. split; auto. split; auto.
    destruct Hfl as [->| ->]; auto. apply fdel_In. split; auto.
    intros Ef. destruct Hn as [Hn|Hn]; [|subst f; discriminate].
    subst f. unfold needed in Hn. cbn in Hn. rewrite Ev in Hn. cbn in Hn. rewrite N.eqb_refl in Hn. discriminate.
Qed.

Lemma rj_flush_InvO : forall n s, InvO s ->
  InvO (rj_flush n s) /\ next s <= next (rj_flush n s) /\ hasman (rj_flush n s) = hasman s /\
  journal (rj_flush n s) = journal s /\ man (rj_flush n s) = man s /\ views (rj_flush n s) = views s /\
  (forall m, In (FJournal, m) (files (rj_flush n s)) <-> In (FJournal, m) (files s)).
Proof.
  induction n as [|n IH]; intros s H.
  - unfold rj_flush. split; [exact H | split; [lia | repeat split; auto]].
  - unfold rj_flush. fold rj_flush. set (t := next s).
    set (s1 := set_tb (tset (tb s) t (COut KFlush))
                 (set_residue (filter (fun x => negb (fd_eqb (FTable, t) (fst x))) (residue s))
                    (set_files (fadd (files s) (FTable, t)) (set_next (t + 1) s)))).
    assert (Hfresh : tget (tb s) t = None).
    { destruct (tget (tb s) t) eqn:Eg; auto. destruct (o_cls s H t _ Eg). unfold t in *. lia. }
    assert (H1 : InvO s1).
    { destruct (o_v s H) as [v (Ev&Em&Lm&W&Lt&Hh)].
      constructor; cbn; try apply H.
      - apply fadd_NoDup, (o_fl s H).
      - apply tset_NoDup, (o_k s H).
      - intros u c. rewrite tget_tset. destruct (N.eqb_spec t u) as [ <- |].
        + intros E; inversion E; subst. split; auto. lia.
        + intros Hc. destruct (o_cls s H u c Hc). split; auto. unfold t. lia.
      - exists v. split; auto. split; auto. split; [unfold t; lia|]. split; auto.
        split; [intros u Hu; specialize (Lt u Hu); unfold t; lia|].
        intros Hm. destruct (Hh Hm) as (P1&P2&P3&P4&P5). split; auto. split; [|split; [auto|split]].
        + intros u. rewrite tget_tset, P2. destruct (N.eqb_spec t u) as [ <- |]; [|tauto].
          split; [|discriminate]. intros Hu. rewrite Hfresh in Hu. discriminate.
        + intros u c. rewrite tget_tset. destruct (N.eqb_spec t u) as [ <- |]; [|apply P4].
          intros _. unfold t. lia.
        + apply fadd_In. right. auto. }
    destruct (IH s1 H1) as (I1&I2&I3&I4&I5&I6&I7). split; [exact I1|].
    split; [change (next s1) with (t + 1) in I2; unfold t in *; lia|].
    split; [exact I3|]. split; [exact I4|]. split; [exact I5|]. split; [exact I6|].
    intros m. rewrite I7. change (files s1) with (fadd (files s) (FTable, t)). rewrite fadd_In.
    split; [intros [E|Hin]; [discriminate | auto] | auto].
Qed.

(* the commits of recoverJournal: a record that sets the journal number and adds the tables flushed
   since the last one; the first one of the session creates its manifest *)
Lemma commit_open : forall j rmok s, InvO s ->
  let s' := fst (commit (Some KFlush) [] (Some j) false COk rmok s) in
  InvO s' /\ hasman s' = true /\ (exists v, views s' = [v] /\ v_jnum v = j) /\
  (forall t, tget (tb s') t <> Some (COut KFlush)) /\ next s <= next s' /\ journal s' = journal s /\
  (forall t c, tget (tb s') t = Some c -> exists c0, tget (tb s) t = Some c0) /\
  (forall m, In (FJournal, m) (files s') <-> In (FJournal, m) (files s)).
Proof.
  intros j rmok s H. cbv zeta.
  destruct (o_v s H) as [v0 (Ev0&Em0&Lm0&W0&Lt0&Hh0)].
  pose proof (install_back (Some KFlush) [] (Some j)) as Hback.
  pose proof (install_tab (Some KFlush) [] (Some j)) as Htab.
  assert (Hnew : forall s1 t, (forall u c, tget (tb s1) u = Some c -> c = CTab \/ c = COut KFlush) ->
            forall c, tget (tb (install (Some KFlush) [] (Some j) s1)) t = Some c -> c = CTab /\ exists c0, tget (tb s1) t = Some c0).
  { intros s1 t Hcl c Hc. destruct (Hback s1 t c Hc) as [c0 [Hc0 Hor]]. split; [|exists c0; auto].
    destruct (Hcl t c0 Hc0) as [->| ->].
    - destruct Hor as [->|[(_&_&[])|[k (_&E&_)]]]; [auto | discriminate].
    - destruct Hor as [->|[(E&_)|[k (_&_&E)]]]; [|discriminate | auto].
      assert (tget (tb (install (Some KFlush) [] (Some j) s1)) t = Some CTab) by (apply Htab; right; exists KFlush; auto).
      congruence. }
  destruct (hasman s) eqn:Ehm.
  - (* flushManifest *)
    rewrite commit_flush by (rewrite Ehm, (o_mf s H); reflexivity). cbv zeta.
    destruct (Hh0 eq_refl) as (P1&P2&P3&P4&P5).
    rewrite Ev0. cbn [hd fst].
    set (r := apply_rec v0 (outs_of (Some KFlush) s) [] (Some j) (next s)).
    pose proof (install_keys (Some KFlush) [] (Some j) s) as Hkeys.
    specialize (Hnew s). specialize (Htab s).
    assert (Hcl : forall u c, tget (tb s) u = Some c -> c = CTab \/ c = COut KFlush) by (intros u c Hc; apply (o_cls s H u c Hc)).
    assert (K2 : NoDup (map fst (tb (install (Some KFlush) [] (Some j) s)))) by (rewrite Hkeys; apply (o_k s H)).
    assert (Hr_tabs : forall t, In t (v_tabs r) <-> tget (tb (install (Some KFlush) [] (Some j) s)) t = Some CTab).
    { intros t. unfold r, apply_rec. cbn. rewrite in_app_iff, filter_In, outs_In by apply (o_k s H).
      rewrite Htab, P2. cbn. split.
      - intros [[Ht _]|Ht]; [left; auto | right; exists KFlush; auto].
      - intros [[Ht _]|[k [E Ht]]]; [left; auto | right; inversion E; subst; auto]. }
    rewrite (install_eq (Some KFlush) [] (Some j) s). set (tb2 := tb (install (Some KFlush) [] (Some j) s)) in *.
    split; [|split; [|split; [|split; [|split; [|split; [|split]]]]]]; cbn.
    + constructor; cbn; try apply H.
      * exact K2.
      * intros t c Hc. destruct (Hnew t Hcl c Hc) as [-> [c0 Hc0]]. split; auto. apply (o_cls s H t c0 Hc0).
      * exists r. split; auto.
        split; [exact Em0|]. split; [exact Lm0|]. split; [split; cbn; auto|].
        { intros t Ht. apply Hr_tabs in Ht. destruct (Hnew t Hcl _ Ht) as [_ [c0 Hc0]]. apply (o_cls s H t c0 Hc0). }
        split.
        { intros t Ht. apply Hr_tabs in Ht. destruct (Hnew t Hcl _ Ht) as [_ [c0 Hc0]]. apply (o_cls s H t c0 Hc0). }
        intros _. split; [exact P1|]. split; [exact Hr_tabs|]. split; [reflexivity|]. split; [|exact P5].
        intros t c Hc. destruct (Hnew t Hcl c Hc) as [_ [c0 Hc0]]. apply (P4 t c0 Hc0).
    + exact Ehm.
    + exists r. split; auto.
    + intros t Hc. destruct (Hnew t Hcl _ Hc) as [E _]. discriminate.
    + lia.
    + auto.
    + intros t c Hc. apply (Hnew t Hcl c Hc).
    + intros m. tauto.
  - (* newManifest: the new manifest becomes current, then Remove is called on the old one *)
    rewrite commit_new_ok by (rewrite Ehm; reflexivity). cbn [fst]. rewrite Em0.
    set (m := next s).
    set (s1 := set_next (m + 1) s).
    pose proof (install_keys (Some KFlush) [] (Some j) s1) as Hkeys.
    specialize (Hnew s1). specialize (Htab s1).
    assert (Hcl : forall u c, tget (tb s1) u = Some c -> c = CTab \/ c = COut KFlush) by (intros u c Hc; apply (o_cls s H u c Hc)).
    assert (K2 : NoDup (map fst (tb (install (Some KFlush) [] (Some j) s1)))) by (rewrite Hkeys; apply (o_k s H)).
    assert (Hv_tab : forall t, In t (tabs_of (tb (install (Some KFlush) [] (Some j) s1))) <->
                               tget (tb (install (Some KFlush) [] (Some j) s1)) t = Some CTab) by (intros; apply tabs_of_In; auto).
    assert (Hlt2 : forall t c, tget (tb (install (Some KFlush) [] (Some j) s1)) t = Some c -> t < m).
    { intros t c Hc. destruct (Hnew t Hcl c Hc) as [_ [c0 Hc0]]. apply (o_cls s H t c0 Hc0). }
    set (s5 := new_man_state (Some KFlush) [] (Some j) s).
    assert (Hn : needed s5 (FManifest, v_man v0) = false).
    { unfold needed, s5, new_man_state. cbn. rewrite orb_false_r. apply N.eqb_neq. lia. }
    assert (P5 : InvO s5 /\ hasman s5 = true /\ (exists v, views s5 = [v] /\ v_jnum v = j) /\
                 (forall t, tget (tb s5) t <> Some (COut KFlush)) /\ next s <= next s5 /\ journal s5 = journal s /\
                 (forall t c, tget (tb s5) t = Some c -> exists c0, tget (tb s) t = Some c0) /\
                 (forall m0, In (FJournal, m0) (files s5) <-> In (FJournal, m0) (files s))).
    { unfold s5, new_man_state. fold m. fold s1. rewrite (install_eq (Some KFlush) [] (Some j) s1).
      set (tb2 := tb (install (Some KFlush) [] (Some j) s1)) in *.
      split; [|split; [|split; [|split; [|split; [|split; [|split]]]]]]; cbn.
      + constructor; cbn; try apply H; try reflexivity.
        * apply fadd_NoDup, (o_fl s H).
        * exact K2.
        * intros t c Hc. specialize (Hlt2 t _ Hc). destruct (Hnew t Hcl c Hc) as [-> _]. split; [auto | lia].
        * eexists. split; [reflexivity|]. cbn. split; [reflexivity|]. split; [lia|].
          assert (Htl : forall t, In t (tabs_of tb2) -> t < m + 1)
            by (intros t Ht; apply Hv_tab in Ht; specialize (Hlt2 t _ Ht); lia).
          split; [split; cbn; [lia | exact Htl]|]. split; [exact Htl|].
          intros _. split; [reflexivity|]. split; [exact Hv_tab|]. split; [reflexivity|]. split.
          { intros t c Hc. specialize (Hlt2 t c Hc). lia. }
          apply fadd_In. left. reflexivity.
      + reflexivity.
      + eexists. split; reflexivity.
      + intros t Hc. destruct (Hnew t Hcl _ Hc) as [E _]. discriminate.
      + unfold m. lia.
      + reflexivity.
      + intros t c Hc. apply (Hnew t Hcl c Hc).
      + intros m0. rewrite fadd_In. split; [intros [E|Hin]; [discriminate | auto] | auto]. }
    clearbody s5. destruct P5 as (Q1&Q2&Q3&Q4&Q5&Q6&Q7&Q8).
    pose proof (do_rm_InvO (FManifest, v_man v0) rmok RFailed s5 Q1 (or_introl Hn)) as Q1'.
    destruct (do_rm_form (FManifest, v_man v0) rmok RFailed s5) as (fl & r & E & Hfl). rewrite E in *.
    split; [exact Q1'|]. cbn.
    split; [exact Q2|]. split; [exact Q3|]. split; [exact Q4|]. split; [exact Q5|]. split; [exact Q6|]. split; [exact Q7|].
    intros m0. rewrite <- Q8. destruct Hfl as [->| ->]; [tauto|]. rewrite fdel_In.
    split; [tauto | intros Hin; split; [auto | discriminate]].
Qed.

Lemma needed_do_rm : forall f ok why s g, needed (fst (do_rm f ok why s)) g = needed s g.
Proof.
  intros. destruct (do_rm_form f ok why s) as (fl & r & -> & _). reflexivity.
Qed.

Lemma do_rm_seq_InvO : forall rem bad s, InvO s ->
  (forall f, In f rem -> needed s f = false \/ f = (FJournal, 0)) ->
  InvO (fst (do_rm_seq rem bad s)) /\
  tb (fst (do_rm_seq rem bad s)) = tb s /\ views (fst (do_rm_seq rem bad s)) = views s /\
  journal (fst (do_rm_seq rem bad s)) = journal s /\ next (fst (do_rm_seq rem bad s)) = next s /\
  man (fst (do_rm_seq rem bad s)) = man s /\ hasman (fst (do_rm_seq rem bad s)) = hasman s /\
  sjnum (fst (do_rm_seq rem bad s)) = sjnum s.
Proof.
  induction rem as [|f rem IH]; intros bad s H Hn; cbn [do_rm_seq].
  - cbn. split; [auto | repeat split; reflexivity].
  - pose proof (do_rm_InvO f (negb (fmem bad f)) RFailed s H (Hn f (or_introl eq_refl))) as H1.
    pose proof (needed_do_rm f (negb (fmem bad f)) RFailed s) as Hnd.
    destruct (do_rm_form f (negb (fmem bad f)) RFailed s) as (fl & r & E & _).
    destruct (do_rm f (negb (fmem bad f)) RFailed s) as [s1 ok]. cbn [fst] in *.
    destruct ok.
    + destruct (IH bad s1 H1) as (I0&I1&I2&I3&I4&I5&I6&I7).
      { intros g Hg. rewrite Hnd. apply Hn. right; auto. }
      split; [auto|]. rewrite I1, I2, I3, I4, I5, I6, I7, E. repeat split; auto.
    + cbn. split; [auto | rewrite E; repeat split; auto].
Qed.

Lemma do_rm_seq_files : forall rem bad s, NoDup rem -> incl rem (files s) ->
  snd (do_rm_seq rem bad s) = true ->
  forall f, In f (files (fst (do_rm_seq rem bad s))) <-> In f (files s) /\ ~ In f rem.
Proof.
  induction rem as [|g rem IH]; intros bad s Hnd Hin Hok f; cbn [do_rm_seq] in *.
  - cbn. tauto.
  - inversion Hnd as [|x l Hnot Hnd']; subst.
    assert (Hg : fmem (files s) g = true) by (apply fmem_In; apply Hin; left; auto).
    unfold do_rm in *. rewrite Hg in *.
    destruct (negb (fmem bad g)) eqn:Eb; cbn [fst snd] in *; [|discriminate].
    set (s1 := set_residue (filter (fun x => negb (fd_eqb g (fst x))) (residue (set_trace ((g, needed s g) :: trace s) s)))
                 (set_files (fdel (files (set_trace ((g, needed s g) :: trace s) s)) g) (set_trace ((g, needed s g) :: trace s) s))) in *.
    assert (Hin1 : incl rem (files s1)).
    { intros h Hh. subst s1. cbn. apply fdel_In. split; [apply Hin; right; auto|]. intro; subst; auto. }
    rewrite (IH bad s1 Hnd' Hin1 Hok f). subst s1. cbn. rewrite fdel_In. cbn. intuition congruence.
Qed.

Lemma tget_const_map : forall l t c, tget (map (fun t => (t, CTab)) l) t = Some c -> c = CTab /\ In t l.
Proof.
  induction l as [|x l IH]; intros t c; [discriminate|]. cbn [map]. unfold tget; fold tget.
  destruct (N.eqb_spec t x) as [->|].
  - intros E; inversion E; subst. split; auto. left; auto.
  - intros Hc. destruct (IH t c Hc). split; auto. right; auto.
Qed.

Lemma nsorted_le_last : forall l, nsorted l -> forall j, In j l -> j <= last l 0.
Proof.
  unfold nsorted. intros l H. induction H; intros j Hj; [destruct Hj|].
  destruct Hj as [ <- |Hj].
  - destruct l as [|y l]; [cbn; lia|]. rewrite Forall_forall in H0.
    assert (Hl : In (last (y :: l) 0) (y :: l)).
    { clear. revert y. induction l as [|z l IHl]; intros y; [left; reflexivity|]. right. apply IHl. }
    specialize (H0 _ Hl). cbn [last] in *. exact H0.
  - destruct l as [|y l]; [destruct Hj|]. apply IHStronglySorted in Hj. exact Hj.
Qed.

Lemma bump_next_InvO : forall s n, InvO s -> next s <= n -> InvO (set_next n s).
Proof.
  intros s n H Hle. constructor; cbn; try apply H.
  - intros t c Hc. destruct (o_cls s H t c Hc). split; auto. lia.
  - destruct (o_v s H) as [v (Ev&Em&Lm&W&Lt&Hh)]. exists v. split; auto. split; auto. split; [lia|].
    split; auto. split; auto. intros t Ht. specialize (Lt t Ht). lia.
Qed.

Lemma rj_loop_InvO : forall sel fl ofd mbad bad s, InvO s -> nsorted sel -> NoDup sel ->
  (forall j, In j sel -> j < next s) ->
  (forall o, ofd = Some o -> o < next s /\ forall j, In j sel -> o < j) ->
  InvO (fst (fst (rj_loop sel fl ofd mbad bad s))) /\
  next s <= next (fst (fst (rj_loop sel fl ofd mbad bad s))) /\
  journal (fst (fst (rj_loop sel fl ofd mbad bad s))) = journal s /\
  (forall o, snd (rj_loop sel fl ofd mbad bad s) = Some o -> o < next (fst (fst (rj_loop sel fl ofd mbad bad s)))) /\
  (forall m, In (FJournal, m) (files (fst (fst (rj_loop sel fl ofd mbad bad s)))) -> In (FJournal, m) (files s)).
Proof.
  induction sel as [|j sel IH]; intros fl ofd mbad bad s H Hs Hnd Hlt Hofd.
  - cbn. split; auto. split; [lia|]. split; auto. split; auto. intros o Ho. destruct (Hofd o Ho); auto.
  - cbn [rj_loop].
    assert (Hs' : nsorted sel) by (unfold nsorted in *; inversion Hs; auto).
    assert (Hnd' : NoDup sel) by (inversion Hnd; auto).
    assert (Hjlt : forall j', In j' sel -> j < j') by (apply nsorted_head_lt; auto).
    assert (Hstage : forall s1 ok,
              (s1, ok) = match ofd with
                         | None => (s, true)
                         | Some o =>
                             let '(s', _) := commit (Some KFlush) [] (Some j) false COk
                                               (negb mbad) s in
                             do_rm (FJournal, o) (negb (fmem bad (FJournal, o))) RFailed s'
                         end ->
              InvO s1 /\ next s <= next s1 /\ journal s1 = journal s /\
              (forall m, In (FJournal, m) (files s1) -> In (FJournal, m) (files s))).
    { intros s1 ok E. destruct ofd as [o|].
      - destruct (Hofd o eq_refl) as [Ho1 Ho2].
        pose proof (commit_open j (negb mbad) s H) as Hc.
        destruct (commit (Some KFlush) [] (Some j) false COk (negb mbad) s) as [s' x].
        cbn [fst] in Hc. destruct Hc as (C1&C2&[v [Ev Ej]]&C4&C5&C6&_&C8).
        assert (Hn : needed s' (FJournal, o) = false \/ (FJournal, o) = (FJournal, 0)).
        { destruct (N.eqb_spec o 0) as [->|Hz]; auto. left. apply needed_journal_old; auto.
          - intros v0 Hv0. rewrite Ev in Hv0. destruct Hv0 as [ <- |[]].
            destruct (o_v s' C1) as [v1 (Ev1&_&_&_&_&Hh)]. rewrite Ev in Ev1. inversion Ev1; subst. apply (Hh C2).
          - intros v0 Hv0. rewrite Ev in Hv0. destruct Hv0 as [ <- |[]]. rewrite Ej. apply Ho2. left; auto. }
        pose proof (do_rm_InvO (FJournal, o) (negb (fmem bad (FJournal, o))) RFailed s' C1 Hn) as H1.
        destruct (do_rm_form (FJournal, o) (negb (fmem bad (FJournal, o))) RFailed s') as (fs & r & E' & Hfl).
        destruct (do_rm (FJournal, o) (negb (fmem bad (FJournal, o))) RFailed s') as [s1' ok']. inversion E; subst.
        cbn [fst] in *. split; [exact H1|]. rewrite E'. cbn [next journal files set_residue set_files set_trace].
        split; [exact C5|]. split; [exact C6|].
        intros m Hm. apply C8. destruct Hfl as [->| ->]; auto. apply fdel_In in Hm. tauto.
      - inversion E; subst. split; auto. split; [lia | auto]. }
    destruct (match ofd with
              | None => (s, true)
              | Some o =>
                  let '(s', _) := commit (Some KFlush) [] (Some j) false COk
                                    (negb mbad) s in
                  do_rm (FJournal, o) (negb (fmem bad (FJournal, o))) RFailed s'
              end) as [s1 ok] eqn:Est.
    destruct (Hstage s1 ok eq_refl) as (H1&Hn1&Hj1&Hf1).
    destruct ok.
    + destruct (rj_flush_InvO (N.to_nat (hd 0 fl)) s1 H1) as (G1&G2&G3&G4&G5&G6&G7).
      set (s2 := rj_flush (N.to_nat (hd 0 fl)) s1) in *.
      destruct (IH (tl fl) (Some j) mbad bad s2 G1 Hs' Hnd') as (I1&I2&I3&I4&I5).
      * intros j' Hj'. assert (j' < next s) by (apply Hlt; right; auto). lia.
      * intros o Ho. inversion Ho; subst. split; auto. assert (o < next s) by (apply Hlt; left; auto). lia.
      * split; auto. split; [lia|]. split; [congruence |]. split; auto.
        intros m Hm. apply Hf1. apply G7. apply I5. auto.
    + cbn [fst snd]. split; auto. split; auto. split; auto. split; auto.
      intros o Ho. destruct (Hofd o Ho). lia.
Qed.

(* the janitor's plan names only files nobody needs *)
Lemma janitor_rem_unneeded : forall s rem, InvO s -> hasman s = true ->
  (exists v, views s = [v] /\ v_jnum v = journal s) ->
  janitor (jstate_of s) (files s) = JRemove rem ->
  forall f, In f rem -> needed s f = false \/ f = (FJournal, 0).
Proof.
  intros s rem H Hm [v [Ev Ej]] Hjan f Hf.
  unfold janitor in Hjan. destruct (Nat.eqb _ _); [|discriminate]. inversion Hjan; subst; clear Hjan.
  apply filter_In in Hf. destruct Hf as [Hin Hk]. apply negb_true_iff in Hk.
  destruct (o_v s H) as [v1 (Ev1&Em1&_&_&_&Hh)]. rewrite Ev in Ev1. inversion Ev1; subst v1.
  destruct (Hh Hm) as (P1&P2&P3&P4&P5).
  destruct f as [[] n]; unfold jkeep, jstate_of in Hk; cbn in Hk.
  - left. unfold needed. cbn. rewrite Ev. cbn. rewrite orb_false_r. rewrite Em1 in Hk. rewrite N.eqb_sym. auto.
  - rewrite (o_fz s H) in Hk. apply N.leb_gt in Hk.
    destruct (N.eqb_spec n 0) as [->|Hz]; auto. left. apply needed_journal_old; auto.
    + intros v0 Hv0. rewrite Ev in Hv0. destruct Hv0 as [ <- |[]]. auto.
    + intros v0 Hv0. rewrite Ev in Hv0. destruct Hv0 as [ <- |[]]. rewrite Ej. auto.
  - left. apply nmem_false in Hk. rewrite tabs_of_In in Hk by apply (o_k s H).
    apply needed_table_false; auto.
    + apply (o_k s H).
    + rewrite (o_held s H). intros h [].
    + intros v0 Hv0. rewrite Ev in Hv0. destruct Hv0 as [ <- |[]]. rewrite P2. auto.
    + rewrite (o_pins s H). intros [].
  - left. reflexivity.
Qed.

(* Open from any closed state: the invariant of the result, and if Open succeeds the listing is exact: every
   file of the exact set is there, and every file there belongs to the exact set or is a journal numbered
   above the new one (which cannot exist when the manifest's journal number is not above its next file
   number) *)
Theorem open_db_spec : forall v fl mbad bad s, InvC s -> In v (views s) ->
  Good (open_db v fl mbad bad s) /\
  (opened (open_db v fl mbad bad s) = true ->
     (forall f, In f (exact_set (open_db v fl mbad bad s)) -> In f (files (open_db v fl mbad bad s))) /\
     (forall f, In f (files (open_db v fl mbad bad s)) ->
        In f (exact_set (open_db v fl mbad bad s)) \/
        exists n, f = (FJournal, n) /\ journal (open_db v fl mbad bad s) < n /\ v_next v < v_jnum v) /\
     (forall t c, tget (tb (open_db v fl mbad bad s)) t = Some c -> c = CTab) /\
     frozen (open_db v fl mbad bad s) = None /\
     residue (open_db v fl mbad bad s) =
       map (fun f => (f, RStray)) (filter (fun f => negb (is_live (open_db v fl mbad bad s) f)) (files (open_db v fl mbad bad s)))).
Proof.
  intros v fl mbad bad s H Hv.
  destruct (c_v s H v Hv) as [Wm Wt].
  unfold open_db.
  set (s0 := set_tb (map (fun t => (t, CTab)) (ndedup (v_tabs v)))
      (set_next (v_next v) (set_sjnum (v_jnum v) (set_man (Some (v_man v)) (set_hasman false (set_mfailed false
      (set_views [v] (set_held [] (set_pins [] (set_jf job_off (set_jc job_off (set_jt job_off
      (set_frozen None (set_fdone false (set_fempty false (set_residue [] s)))))))))))))))).
  assert (H0 : InvO s0).
  { constructor; cbn; try reflexivity; try apply H.
    - rewrite map_map. cbn. rewrite map_id. apply ndedup_NoDup.
    - intros t c Hc. apply tget_const_map in Hc. destruct Hc as [-> Hin]. split; auto.
      apply Wt. apply ndedup_In; auto.
    - repeat split.
    - exists v. split; auto. split; auto. split; auto. split; [split; auto|]. split; auto. discriminate. }
  assert (Hop0 : opened s0 = false) by apply H.
  assert (Hfiles0 : files s0 = files s) by reflexivity.
  set (sel := rj_select (v_jnum v) (pjn v) (files s)).
  destruct (rj_select_spec (v_jnum v) (pjn v) (files s) (c_fl s H)) as (_&Hsorted&Hnodup). fold sel in Hsorted, Hnodup.
  set (s1 := match sel with [] => s0 | _ => mark_num (last sel 0) s0 end).
  assert (H1 : InvO s1 /\ forall j, In j sel -> j < next s1).
  { subst s1. destruct sel as [|j0 sel0] eqn:Esel; [split; auto; intros j []|].
    unfold mark_num. split.
    - apply bump_next_InvO; auto. lia.
    - intros j Hj. apply (nsorted_le_last _ Hsorted) in Hj. cbn [next set_next]. lia. }
  destruct H1 as [H1 Hsel1].
  destruct (rj_loop_InvO sel fl None mbad bad s1 H1 Hsorted Hnodup Hsel1) as (L1&L2&L3&L4&L5); [intros o Ho; discriminate|].
  destruct (rj_loop sel fl None mbad bad s1) as [[s2 ok] ofd]. cbn [fst snd] in *.
  destruct ok; cbn [negb]; [|split; [unfold Good; rewrite (o_op s2 L1); apply InvO_InvC; auto | rewrite (o_op s2 L1); discriminate]].
  set (j := next s2).
  set (s3 := set_journal j (set_files (fadd (files s2) (FJournal, j)) (set_next (j + 1) s2))).
  assert (H3 : InvO s3).
  { assert (Hb : InvO (set_next (j + 1) s2)) by (apply bump_next_InvO; auto; unfold j; lia).
    constructor; cbn; try apply Hb; [apply fadd_NoDup, (o_fl s2 L1)|].
    destruct (o_v _ Hb) as [v' (Ev'&Em'&Lm'&W'&Lt'&Hh')]. cbn in *. exists v'.
    split; auto. split; auto. split; auto. split; auto. split; auto.
    intros Hm. destruct (Hh' Hm) as (P1&P2&P3&P4&P5). split; auto. split; auto. split; auto. split; auto.
    apply fadd_In. right. auto. }
  assert (Hlt3 : forall t c, tget (tb s3) t = Some c -> t < j) by (intros t c Hc; apply (o_cls s2 L1 t c Hc)).
  pose proof (commit_open j (negb mbad) s3 H3) as Hc.
  destruct (commit (Some KFlush) [] (Some j) false COk (negb mbad) s3) as [s4 x].
  cbn [fst] in Hc. destruct Hc as (C1&C2&[v4 [Ev4 Ej4]]&C4&C5&C6&C7&C8).
  assert (Hj4 : journal s4 = j) by (rewrite C6; reflexivity).
  assert (Hn4 : j + 1 <= next s4) by (cbn in C5; lia).
  assert (Hj4file : In (FJournal, j) (files s4)) by (apply C8; subst s3; cbn; apply fadd_In; left; auto).
  assert (Hstage : forall s5 ok5,
            (s5, ok5) = match ofd with
                        | Some o => do_rm (FJournal, o) (negb (fmem bad (FJournal, o))) RFailed s4
                        | None => (s4, true)
                        end ->
            InvO s5 /\ tb s5 = tb s4 /\ views s5 = views s4 /\ journal s5 = j /\ next s5 = next s4 /\
            hasman s5 = true /\ man s5 = man s4 /\ sjnum s5 = sjnum s4 /\
            In (FJournal, j) (files s5) /\ (forall n, In (FJournal, n) (files s5) -> In (FJournal, n) (files s4))).
  { intros s5 ok5 E. destruct ofd as [o|].
    - assert (Ho : o < j) by (apply L4; auto).
      assert (Hn : needed s4 (FJournal, o) = false \/ (FJournal, o) = (FJournal, 0)).
      { destruct (N.eqb_spec o 0) as [->|Hz]; auto. left. apply needed_journal_old; auto.
        - intros v0 Hv0. rewrite Ev4 in Hv0. destruct Hv0 as [ <- |[]].
          destruct (o_v s4 C1) as [v1 (Ev1&_&_&_&_&Hh)]. rewrite Ev4 in Ev1. inversion Ev1; subst. apply (Hh C2).
        - intros v0 Hv0. rewrite Ev4 in Hv0. destruct Hv0 as [ <- |[]]. rewrite Ej4. auto. }
      pose proof (do_rm_InvO (FJournal, o) (negb (fmem bad (FJournal, o))) RFailed s4 C1 Hn) as H5.
      destruct (do_rm_form (FJournal, o) (negb (fmem bad (FJournal, o))) RFailed s4) as (fs & r & E' & Hfl).
      destruct (do_rm (FJournal, o) (negb (fmem bad (FJournal, o))) RFailed s4) as [s5' ok5']. inversion E; subst.
      cbn [fst] in *. split; auto. rewrite E'.
      cbn [tb views journal next hasman man sjnum files set_residue set_files set_trace].
      split; auto. split; auto. split; auto. split; auto. split; auto. split; auto. split; auto. split.
      + destruct Hfl as [->| ->]; auto. apply fdel_In. split; auto. intros Ef. inversion Ef. lia.
      + intros n Hn'. destruct Hfl as [->| ->]; auto. apply fdel_In in Hn'. tauto.
    - inversion E; subst. split; auto. repeat split; auto. }
  destruct (match ofd with
            | Some o => do_rm (FJournal, o) (negb (fmem bad (FJournal, o))) RFailed s4
            | None => (s4, true)
            end) as [s5 ok5] eqn:Est.
  destruct (Hstage s5 ok5 eq_refl) as (H5&T1&T2&T3&T4&T5&T6&T7&T8&T9).
  destruct ok5; cbn [negb]; [|split; [unfold Good; rewrite (o_op s5 H5); apply InvO_InvC; auto | rewrite (o_op s5 H5); discriminate]].
  destruct (janitor (jstate_of s5) (files s5)) as [ts|rem] eqn:Ejan;
    [split; [unfold Good; rewrite (o_op s5 H5); apply InvO_InvC; auto | rewrite (o_op s5 H5); discriminate]|].
  assert (Hviews5 : exists v, views s5 = [v] /\ v_jnum v = journal s5).
  { exists v4. rewrite T2, T3. auto. }
  pose proof (janitor_rem_unneeded s5 rem H5 T5 Hviews5 Ejan) as Hun.
  destruct (do_rm_seq_InvO rem bad s5 H5 Hun) as (H6&U1&U2&U3&U4&U5&U6&U7).
  assert (Hrem : rem = filter (fun f => negb (jkeep (jstate_of s5) f)) (files s5) /\
                 forall t, In t (tabs_of (tb s5)) -> In (FTable, t) (files s5)).
  { pose proof (janitor_spec (jstate_of s5) (files s5) (o_fl s5 H5)) as Hsp. rewrite Ejan in Hsp.
    destruct Hsp as (Sp1&Sp2&_). split; auto. }
  destruct Hrem as [Hrem Htabs5].
  assert (Hfiles6 : snd (do_rm_seq rem bad s5) = true ->
            forall f, In f (files (fst (do_rm_seq rem bad s5))) <-> In f (files s5) /\ ~ In f rem).
  { apply do_rm_seq_files.
    - rewrite Hrem. apply NoDup_filter, (o_fl s5 H5).
    - rewrite Hrem. intros f Hf. apply filter_In in Hf. tauto. }
  destruct (do_rm_seq rem bad s5) as [s6 ok6]. cbn [fst snd] in *.
  destruct ok6; cbn [negb]; [|split; [unfold Good; rewrite (o_op s6 H6); apply InvO_InvC; auto | rewrite (o_op s6 H6); discriminate]].
  specialize (Hfiles6 eq_refl).
  destruct (o_v s6 H6) as [v6 (Ev6&Em6&Lm6&W6&Lt6&Hh6)].
  rewrite U6, T5 in Hh6. destruct (Hh6 eq_refl) as (P1&P2&P3&P4&P5).
  assert (Ev64 : v6 = v4) by (rewrite U2, T2, Ev4 in Ev6; inversion Ev6; auto). subst v6.
  destruct (o_jobs s6 H6) as (J1&J2&J3).
  assert (Hcls6 : forall t c, tget (tb s6) t = Some c -> c = CTab /\ t < j).
  { intros t c Hc. rewrite U1, T1 in Hc. split.
    - destruct (o_cls s4 C1 t c Hc) as [[->| ->] _]; auto. exfalso. apply (C4 t); auto.
    - destruct (C7 t c Hc) as [c0 Hc0]. apply (Hlt3 t c0 Hc0). }
  assert (Hkeep6 : forall f, In f (files s6) <-> In f (files s5) /\ jkeep (jstate_of s5) f = true).
  { intros f. rewrite Hfiles6, Hrem, filter_In, negb_true_iff. destruct (jkeep (jstate_of s5) f); intuition congruence. }
  split; [unfold Good; cbn [opened set_opened]; constructor; cbn|].
  - apply (o_fl s6 H6).
  - apply (o_k s6 H6).
  - rewrite U4, T4, U3, T3, (o_fz s6 H6), (o_pins s6 H6). split; [|split; [|split; [|split]]].
    + lia.
    + intros y Hy. rewrite Em6 in Hy. inversion Hy; subst. rewrite U4, T4 in Lm6. auto.
    + intros z Hz; discriminate.
    + intros t c Hc. destruct (Hcls6 t c Hc) as [_ Hlt]. repeat split; try lia; try discriminate.
      rewrite Em6. intros E. inversion E. apply (P4 t c Hc). auto.
    + intros t [].
  - rewrite (o_held s6 H6). intros h t [].
  - rewrite (o_pins s6 H6). intros t [].
  - intros k _ t. split; intro Hc; destruct (Hcls6 t _ Hc); discriminate.
  - intros v0 t c. cbn. rewrite Ev6. intros [ <- |[]] Ht Hc. destruct (Hcls6 t c Hc). auto.
  - intros _. cbn. exists v4. split; auto.
  - rewrite Ev6. intros v0 [ <- |[]]. auto.
  - rewrite Ev6. intros v0 [ <- |[]]. auto.
  - rewrite Ev6, U3, T3, P3, Ej4. split; [intros v0 [ <- |[]]|]; lia.
  - rewrite (o_fd s6 H6). intros E; discriminate.
  - rewrite Ev6. intros v0 [ <- |[]]. split; auto.
  - apply (o_t s6 H6).
  - reflexivity.
  - intros _.
    set (sf := set_opened true (set_residue (map (fun f => (f, RStray)) (filter (fun f => negb (is_live s6 f)) (files s6))) s6)).
    assert (Hold : (forall f, In f (exact_set sf) -> In f (files sf)) /\
                   (forall f, In f (files sf) -> In f (exact_set sf) \/
                      exists n, f = (FJournal, n) /\ journal sf < n /\ v_next v < v_jnum v));
      [|destruct Hold as [Ho1 Ho2]; split; [exact Ho1|]; split; [exact Ho2|];
        split; [intros t c Hc; apply (Hcls6 t c Hc) | split; [apply (o_fz s6 H6) | reflexivity]]].
    subst sf. unfold exact_set. cbn [tb journal man files set_opened set_residue].
    rewrite Em6, U3, T3, U1.
    assert (Ejs : jstate_of s5 = {| js_tabs := tabs_of (tb s5); js_manifest := v_man v4; js_journal := j; js_frozen := None |}).
    { unfold jstate_of. rewrite <- U5, Em6, T3, (o_fz s5 H5). reflexivity. }
    split.
    + intros f Hf. apply in_app_or in Hf. destruct Hf as [Hf|Hf].
      * apply in_map_iff in Hf. destruct Hf as [t [ <- Ht]]. apply Hkeep6. split; [apply Htabs5; auto|].
        rewrite Ejs. cbn. apply nmem_In. auto.
      * destruct Hf as [ <- |[ <- |[]]].
        -- apply Hkeep6. split; auto. rewrite Ejs. cbn. apply N.leb_le. lia.
        -- auto.
    + intros f Hf. apply Hkeep6 in Hf. destruct Hf as [Hf5 Hk]. rewrite Ejs in Hk.
      destruct f as [[] n]; cbn in Hk.
      * apply N.eqb_eq in Hk. subst n. left. apply in_or_app. right. right. left. auto.
      * apply N.leb_le in Hk. destruct (N.eqb_spec n j) as [->|Hne].
        -- left. apply in_or_app. right. left. auto.
        -- right. exists n. split; auto. split; [lia|].
           assert (Hn2 : In (FJournal, n) (files s2)).
           { apply T9 in Hf5. apply C8 in Hf5. subst s3. cbn in Hf5. apply fadd_In in Hf5.
             destruct Hf5 as [E|]; auto. inversion E. congruence. }
           apply L5 in Hn2.
           assert (Hfs1 : files s1 = files s).
           { subst s1. destruct sel; reflexivity. }
           rewrite Hfs1 in Hn2.
           destruct (jsel (v_jnum v) (pjn v) n) eqn:Esel.
           ++ assert (Hin : In n sel).
              { destruct (rj_select_spec (v_jnum v) (pjn v) (files s) (c_fl s H)) as (Sp&_&_). apply Sp. auto. }
              specialize (Hsel1 n Hin). unfold j in *. lia.
           ++ unfold jsel in Esel. apply orb_false_iff in Esel. destruct Esel as [Esel _]. apply N.leb_gt in Esel.
              assert (Hn0 : v_next v <= next s1).
              { subst s1. destruct sel; [cbn; lia|]. unfold mark_num. cbn. lia. }
              unfold j in *. lia.
      * apply nmem_In in Hk. left. apply in_or_app. left. apply in_map_iff. exists n. auto.
      * discriminate.
Qed.

Theorem open_db_Good : forall v fl mbad bad s, InvC s -> In v (views s) -> Good (open_db v fl mbad bad s).
Proof. intros. apply open_db_spec; auto. Qed.

Lemma nth_In_views : forall (l : list view) i, (i < length l)%nat -> In (nth i l dflt_view) l.
Proof. intros. apply nth_In; auto. Qed.

Theorem step_Good : forall s o s', Good s -> step s o = Some s' -> Good s'.
Proof.
  intros s o s' H Hs. unfold Good in H.
  destruct (opened s) eqn:Eo.
  - assert (Hi : forall s'', Inv s'' -> Good s'') by (intros s'' Hi; unfold Good; rewrite (i_o s'' Hi); auto).
    destruct o.
    + apply Hi. eapply step_pin; eauto.
    + apply Hi. eapply step_unpin; eauto.
    + apply Hi. eapply step_acquire; eauto.
    + apply Hi. eapply step_release; eauto.
    + apply Hi. eapply step_rotate; eauto.
    + apply Hi. eapply step_begin; eauto.
    + apply Hi. eapply step_create; eauto.
    + apply Hi. eapply step_finish; eauto.
    + apply Hi. eapply step_drop; eauto.
    + apply Hi. eapply step_commit; eauto.
    + apply Hi. eapply step_revert; eauto.
    + apply Hi. eapply step_abandon; eauto.
    + apply Hi. eapply step_dropfrozen; eauto.
    + apply Hi. eapply step_discard; eauto.
    + apply Hi. eapply step_loopremove; eauto.
    + pose proof (step_close s s' H Hs) as Hc. unfold Good. rewrite (c_o s' Hc). auto.
    + cbn in Hs. rewrite Eo in Hs. discriminate.
  - destruct o;
      try (cbn in Hs; rewrite ?Eo in Hs; cbn in Hs; try discriminate;
           try (destruct (cur_of k s); discriminate); try (destruct (frozen s); discriminate); fail).
    unfold step in Hs. rewrite Eo in Hs. cbn [negb andb] in Hs.
    destruct (Nat.ltb vi (length (views s))) eqn:El; [|discriminate]. inversion Hs; subst.
    apply open_db_Good; auto. apply nth_In. apply Nat.ltb_lt. auto.
Qed.

Theorem run_Good : forall ops s s', Good s -> run s ops = Some s' -> Good s'.
Proof.
  induction ops as [|o ops IH]; intros s s' H Hr; cbn in Hr.
  - inversion Hr; subst; auto.
  - destruct (step s o) as [s1|] eqn:Es; [|discriminate]. eapply IH; [eapply step_Good; eauto | auto].
Qed.

Lemma boot_Good : forall l v ru, NoDup l -> view_wf v -> Good (boot l v ru).
Proof.
  intros l v ru Hl Hv. unfold Good. cbn. constructor; cbn; auto.
  - intros v0 [ <- |[]]. auto.
  - intros f b [].
Qed.

(* No Remove call of any step, in any order of steps, from any listing and any (well-formed) manifest
   content, hits a file that is needed at the moment of the call; the only exception is a journal file
   numbered 0, which recoverJournal selects only because an absent prev-journal field reads as 0. *)
Theorem never_remove_needed : forall l v ru ops s,
  NoDup l -> view_wf v -> run (boot l v ru) ops = Some s ->
  forall f b, In (f, b) (trace s) -> b = false \/ f = (FJournal, 0).
Proof.
  intros l v ru ops s Hl Hv Hr.
  pose proof (run_Good ops _ _ (boot_Good l v ru Hl Hv) Hr) as H. unfold Good in H.
  destruct (opened s); [apply (i_t s H) | apply (c_t s H)].
Qed.
