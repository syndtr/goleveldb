(* Store/FileStorageProofs.v — proofs about the file-storage model (Store/FileStorage.v):
   the name codec (round trip, what else parses), GetMeta (read-only purity, the repair is a fixpoint),
   the lock / close order laws.  The crash theorems are in FileStorageCrashProofs.v. *)
From Coq Require Import List NArith ZArith Bool Lia.
From GL Require Import Base.Bytes Base.BytesProofs Store.FileStorage.
Import ListNotations.
Open Scope N_scope.

Definition digits_ok (l : bytes) : Prop := Forall (fun b => is_digit b = true) l.

Definition dval (acc : N) (l : bytes) : N := fold_left (fun a b => 10 * a + (b - 48)) l acc.

Lemma is_digit_spec b : is_digit b = true <-> 48 <= b <= 57.
Proof. unfold is_digit. rewrite andb_true_iff, !N.leb_le. tauto. Qed.

Lemma take_digits_spec ds : forall rest acc,
  digits_ok ds -> (rest = [] \/ exists b r, rest = b :: r /\ is_digit b = false) ->
  take_digits (ds ++ rest) acc = (dval acc ds, rest).
Proof.
  induction ds as [|d ds IH]; intros rest acc Hd Hr.
  - cbn. destruct Hr as [->|(b & r & -> & Hb)]; cbn; [reflexivity|]. now rewrite Hb.
  - inversion Hd; subst. cbn [app take_digits]. rewrite H1. rewrite IH by assumption. reflexivity.
Qed.

Lemma dval_app a x y : dval a (x ++ y) = dval (dval a x) y.
Proof. unfold dval. now rewrite fold_left_app. Qed.

Lemma dval_zeros k : dval 0 (repeat 48 k) = 0.
Proof. induction k; cbn; [reflexivity|]. exact IHk. Qed.

Lemma digits_ok_zeros k : digits_ok (repeat 48 k).
Proof. induction k; constructor; [reflexivity|assumption]. Qed.

Lemma digits_ok_app x y : digits_ok x -> digits_ok y -> digits_ok (x ++ y).
Proof. unfold digits_ok. rewrite Forall_app. tauto. Qed.

Lemma dval_single a d : dval a [48 + d] = 10 * a + d.
Proof. unfold dval. cbn [fold_left]. lia. Qed.

Lemma dec_aux_spec f : forall n acc, n < 2 ^ N.of_nat (S f) ->
  exists ds, dec_aux (S f) n acc = ds ++ acc /\ digits_ok ds /\ ds <> [] /\ forall a, exists k, dval a ds = a * 10 ^ k + n.
Proof.
  assert (One : forall n acc, n / 10 = 0 -> exists ds, (48 + n mod 10) :: acc = ds ++ acc /\ digits_ok ds /\ ds <> [] /\
                  forall a, exists k, dval a ds = a * 10 ^ k + n).
  { intros n acc E. assert (n < 10). { destruct (N.lt_ge_cases n 10); [assumption|]. assert (1 <= n / 10) by (apply N.div_le_lower_bound; lia). lia. }
    exists [48 + n mod 10]. repeat split.
    - constructor; [|constructor]. apply is_digit_spec. rewrite N.mod_small by lia. lia.
    - discriminate.
    - intro a. exists 1. rewrite dval_single, N.pow_1_r, N.mod_small by lia. lia. }
  induction f as [|f IH]; intros n acc Hn; cbn [dec_aux]; destruct (n / 10 =? 0) eqn:E; try (apply One, N.eqb_eq, E).
  - apply N.eqb_neq in E. exfalso. apply E, N.div_small. cbn in Hn. lia.
  - assert (n / 10 < 2 ^ N.of_nat (S f)) as Hlt.
    { apply N.div_lt_upper_bound; [lia|]. rewrite Nat2N.inj_succ, N.pow_succ_r' in Hn. rewrite Nat2N.inj_succ in *. lia. }
    destruct (IH (n / 10) ((48 + n mod 10) :: acc) Hlt) as (ds & Heq & Hok & Hne & Hv).
    exists (ds ++ [48 + n mod 10]). repeat split.
    + change (dec_aux (S f) (n / 10) ((48 + n mod 10) :: acc) = (ds ++ [48 + n mod 10]) ++ acc). rewrite Heq, <- app_assoc. reflexivity.
    + apply digits_ok_app; [assumption|]. constructor; [|constructor]. apply is_digit_spec.
      pose proof (N.mod_upper_bound n 10). lia.
    + destruct ds; discriminate.
    + intro a. destruct (Hv a) as (k & Hk). exists (N.succ k). rewrite dval_app, Hk, dval_single.
      rewrite N.pow_succ_r'. pose proof (N.div_mod' n 10). pose proof (N.mod_upper_bound n 10). lia.
Qed.

Lemma dec_spec n : exists ds, dec n = ds /\ digits_ok ds /\ ds <> [] /\ dval 0 ds = n.
Proof.
  unfold dec.
  assert (n < 2 ^ N.of_nat (S (N.to_nat (N.log2 n)))) as H.
  { rewrite Nat2N.inj_succ, N2Nat.id. destruct (N.eq_dec n 0) as [->|Hn]; [reflexivity|].
    apply N.log2_spec. lia. }
  destruct (dec_aux_spec _ n [] H) as (ds & Heq & Hok & Hne & Hv).
  exists ds. rewrite Heq, app_nil_r. repeat split; try assumption.
  destruct (Hv 0) as (k & Hk). rewrite Hk. lia.
Qed.

Lemma pad0_spec w l : digits_ok l -> l <> [] -> digits_ok (pad0 w l) /\ pad0 w l <> [] /\ dval 0 (pad0 w l) = dval 0 l.
Proof.
  intros Hok Hne. unfold pad0. repeat split.
  - apply digits_ok_app; [apply digits_ok_zeros|assumption].
  - destruct (repeat 48 (w - length l)); [assumption|discriminate].
  - now rewrite dval_app, dval_zeros.
Qed.

(* bytes that are neither a newline nor the first byte of a white-space rune *)
Definition plain (b : N) : Prop := 33 <= b < 127.

Lemma space_width_plain b r : plain b -> space_width (b :: r) = 0%nat.
Proof.
  unfold plain, space_width. intro H. cbn [nth].
  repeat match goal with |- context [b =? ?k] => rewrite (proj2 (N.eqb_neq b k)) by lia end.
  reflexivity.
Qed.

Lemma skip_space_plain f b r : plain b -> skip_space f (b :: r) = Some (b :: r).
Proof.
  intro H. destruct f; [reflexivity|]. cbn [skip_space].
  rewrite (proj2 (N.eqb_neq b 10)) by (unfold plain in H; lia). now rewrite space_width_plain.
Qed.

Lemma digit_plain b : is_digit b = true -> plain b.
Proof. rewrite is_digit_spec. unfold plain. lia. Qed.

Lemma digit_not_sign b : is_digit b = true -> (b =? 45) || (b =? 43) = false.
Proof. rewrite is_digit_spec. intro. rewrite !(proj2 (N.eqb_neq _ _)) by lia. reflexivity. Qed.

Definition stops (rest : bytes) : Prop := rest = [] \/ exists b r, rest = b :: r /\ is_digit b = false.

Lemma signed_digits_pos ds rest :
  digits_ok ds -> ds <> [] -> stops rest -> dval 0 ds < two63 ->
  signed_digits (ds ++ rest) = Some (Z.of_N (dval 0 ds), rest).
Proof.
  intros Hok Hne Hr Hv. destruct ds as [|d ds]; [congruence|].
  inversion Hok; subst. unfold signed_digits. cbn [app]. rewrite digit_not_sign by assumption.
  rewrite H1. change (d :: ds ++ rest) with ((d :: ds) ++ rest). rewrite take_digits_spec by assumption.
  unfold mk_int64. rewrite (proj2 (N.eqb_neq d 45)) by (apply is_digit_spec in H1; lia).
  now rewrite (proj2 (N.ltb_lt _ _) Hv).
Qed.

Lemma signed_digits_neg ds rest :
  digits_ok ds -> ds <> [] -> stops rest -> dval 0 ds <= two63 ->
  signed_digits (45 :: ds ++ rest) = Some ((- Z.of_N (dval 0 ds))%Z, rest).
Proof.
  intros Hok Hne Hr Hv. destruct ds as [|d ds]; [congruence|].
  inversion Hok; subst. unfold signed_digits. cbn [app N.eqb Pos.eqb orb]. rewrite H1.
  change (d :: ds ++ rest) with ((d :: ds) ++ rest). rewrite take_digits_spec by assumption.
  unfold mk_int64. now rewrite (proj2 (N.leb_le _ _) Hv).
Qed.

Lemma int64_ok_spec z : int64_ok z = true <-> (- Z.of_N two63 <= z < Z.of_N two63)%Z.
Proof. unfold int64_ok. rewrite andb_true_iff, Z.leb_le, Z.ltb_lt. tauto. Qed.

(* %06d and %d print something %d scans back, whatever follows as long as it is not a digit *)
Lemma signed_digits_fmt (pad : bool) z rest : int64_ok z = true -> stops rest ->
  signed_digits ((if pad then fmt_d06 z else fmt_d z) ++ rest) = Some (z, rest).
Proof.
  intros Hz Hr. apply int64_ok_spec in Hz. unfold fmt_d06, fmt_d.
  destruct (z <? 0)%Z eqn:E.
  - apply Z.ltb_lt in E. destruct (dec_spec (Z.to_N (- z))) as (ds & Hd & Hok & Hne & Hv).
    rewrite Hd. destruct (pad0_spec 5 ds Hok Hne) as (Hok' & Hne' & Hv').
    assert (Z.of_N (dval 0 ds) = (- z)%Z) as Hzz by (rewrite Hv; lia).
    destruct pad; cbn [app].
    + rewrite signed_digits_neg; try assumption.
      * rewrite Hv', Hzz. f_equal. f_equal. lia.
      * rewrite Hv'. lia.
    + rewrite signed_digits_neg; try assumption.
      * rewrite Hzz. f_equal. f_equal. lia.
      * lia.
  - apply Z.ltb_ge in E. destruct (dec_spec (Z.to_N z)) as (ds & Hd & Hok & Hne & Hv).
    rewrite Hd. destruct (pad0_spec 6 ds Hok Hne) as (Hok' & Hne' & Hv').
    assert (Z.of_N (dval 0 ds) = z) as Hzz by (rewrite Hv; lia).
    destruct pad.
    + rewrite signed_digits_pos; try assumption.
      * rewrite Hv', Hzz. reflexivity.
      * rewrite Hv'. lia.
    + rewrite signed_digits_pos; try assumption.
      * rewrite Hzz. reflexivity.
      * lia.
Qed.

Lemma fmt_head (pad : bool) z : exists b r, (if pad then fmt_d06 z else fmt_d z) = b :: r /\ plain b /\ b <> 77.
Proof.
  unfold fmt_d06, fmt_d. destruct (z <? 0)%Z.
  - destruct pad; eexists _, _; (split; [reflexivity|]); unfold plain; lia.
  - destruct (dec_spec (Z.to_N z)) as (ds & Hd & Hok & Hne & Hv). rewrite Hd.
    destruct (pad0_spec 6 ds Hok Hne) as (Hok' & Hne' & _).
    destruct pad.
    + destruct (pad0 6 ds) as [|b r]; [congruence|]. inversion Hok'; subst. exists b, r. split; [reflexivity|].
      split; [now apply digit_plain|]. apply is_digit_spec in H1. lia.
    + destruct ds as [|b r]; [congruence|]. inversion Hok; subst. exists b, r. split; [reflexivity|].
      split; [now apply digit_plain|]. apply is_digit_spec in H1. lia.
Qed.

Lemma scan_int_fmt (pad : bool) z rest : int64_ok z = true -> stops rest ->
  scan_int ((if pad then fmt_d06 z else fmt_d z) ++ rest) = Some (z, rest).
Proof.
  intros Hz Hr. unfold scan_int.
  destruct (fmt_head pad z) as (b & r & Hb & Hp & _).
  pose proof (signed_digits_fmt pad z rest Hz Hr) as Hs.
  destruct pad; rewrite Hb in *; cbn [app] in *; rewrite skip_space_plain by assumption; exact Hs.
Qed.

Lemma strip_prefix_app p l : strip_prefix p (p ++ l) = Some l.
Proof. induction p; cbn; [reflexivity|]. now rewrite N.eqb_refl. Qed.

Lemma stops_dot r : stops (46 :: r).
Proof. right. eexists _, _. split; reflexivity. Qed.

Theorem parse_gen_name fd : int64_ok (fd_num fd) = true -> parse_name (gen_name fd) = Some fd.
Proof.
  intro Hz. destruct fd as [t z]. cbn [fd_num] in Hz. unfold gen_name, parse_name. cbn [fd_type fd_num].
  destruct t.
  - (* manifest: the first Sscanf fails on 'M' *)
    assert (scan_int (s_MANIFEST ++ fmt_d06 z) = None) as -> by reflexivity.
    unfold manifest_scan. rewrite strip_prefix_app.
    pose proof (scan_int_fmt true z [] Hz (or_introl eq_refl)) as H. rewrite app_nil_r in H. rewrite H.
    reflexivity.
  - rewrite (scan_int_fmt true z _ Hz (stops_dot _)). reflexivity.
  - rewrite (scan_int_fmt true z _ Hz (stops_dot _)). reflexivity.
  - rewrite (scan_int_fmt true z _ Hz (stops_dot _)). reflexivity.
Qed.

Theorem parse_gen_old_name fd : int64_ok (fd_num fd) = true -> parse_name (gen_old_name fd) = Some fd.
Proof.
  intro Hz. destruct fd as [t z]. destruct t; try exact (parse_gen_name _ Hz).
  cbn [fd_num] in Hz. unfold gen_old_name, parse_name. cbn [fd_type fd_num].
  rewrite (scan_int_fmt true z _ Hz (stops_dot _)). reflexivity.
Qed.

Corollary gen_name_inj a b : int64_ok (fd_num a) = true -> int64_ok (fd_num b) = true -> gen_name a = gen_name b -> a = b.
Proof. intros Ha Hb E. apply parse_gen_name in Ha, Hb. rewrite E in Ha. congruence. Qed.

Lemma mk_int64_ok neg v z : mk_int64 neg v = Some z -> int64_ok z = true.
Proof.
  unfold mk_int64. intro H. apply int64_ok_spec. destruct neg.
  - destruct (v <=? two63) eqn:E; [|discriminate]. apply N.leb_le in E. inversion H. unfold two63 in *. lia.
  - destruct (v <? two63) eqn:E; [|discriminate]. apply N.ltb_lt in E. inversion H. unfold two63 in *. lia.
Qed.

Lemma signed_digits_ok l z r : signed_digits l = Some (z, r) -> int64_ok z = true.
Proof.
  unfold signed_digits. destruct l as [|b l']; [discriminate|].
  destruct (if (b =? 45) || (b =? 43) then l' else b :: l') as [|d l2] eqn:E; [discriminate|].
  destruct (is_digit d); [|discriminate]. destruct (take_digits (d :: l2) 0) as [v rest].
  destruct (mk_int64 (b =? 45) v) eqn:M; [|discriminate]. intro H. inversion H; subst. eapply mk_int64_ok; eassumption.
Qed.

Lemma scan_int_ok l z r : scan_int l = Some (z, r) -> int64_ok z = true.
Proof. unfold scan_int. destruct (skip_space (length l) l); [|discriminate]. apply signed_digits_ok. Qed.

Theorem parse_name_int64 l fd : parse_name l = Some fd -> int64_ok (fd_num fd) = true.
Proof.
  assert (forall l fd, manifest_scan l = Some fd -> int64_ok (fd_num fd) = true) as HM.
  { clear. intros l fd. unfold manifest_scan. destruct (strip_prefix s_MANIFEST l); [|discriminate].
    destruct (scan_int b) as [[z rest]|] eqn:E; [|discriminate]. destruct (scan_word rest); [discriminate|].
    intro H. inversion H; subst. cbn. eapply scan_int_ok; eassumption. }
  unfold parse_name. destruct (scan_int l) as [[z r]|] eqn:E; [|apply HM].
  destruct r as [|b r']; [apply HM|]. destruct (b =? 46); [|apply HM].
  destruct (scan_word r') as [[w rest]|]; [|apply HM].
  destruct (type_of_tail w); [|discriminate]. intro H. inversion H; subst. cbn. eapply scan_int_ok; eassumption.
Qed.

(* so the round trip holds for everything GetMeta can read out of a CURRENT file *)
Corollary parse_name_regen l fd : parse_name l = Some fd -> parse_name (gen_name fd) = Some fd.
Proof. intro H. apply parse_gen_name. eapply parse_name_int64; eassumption. Qed.

Lemma parse_name_head b r : plain b -> is_digit b = false -> b <> 45 -> b <> 43 -> b <> 77 -> parse_name (b :: r) = None.
Proof.
  intros Hp Hd H45 H43 H77. unfold parse_name, scan_int.
  rewrite skip_space_plain by assumption. unfold signed_digits.
  rewrite (proj2 (N.eqb_neq b 45)), (proj2 (N.eqb_neq b 43)) by assumption. cbn [orb]. rewrite Hd.
  unfold manifest_scan. cbn [s_MANIFEST strip_prefix]. rewrite (proj2 (N.eqb_neq 77 b)) by congruence. reflexivity.
Qed.

Lemma parse_name_C r : parse_name (67 :: r) = None.
Proof. apply parse_name_head; unfold plain; try lia. reflexivity. Qed.

Lemma parse_name_L r : parse_name (76 :: r) = None.
Proof. apply parse_name_head; unfold plain; try lia. reflexivity. Qed.

Theorem parse_pend_name z : parse_name (pend_name z) = None.
Proof. apply parse_name_C. Qed.

Theorem parse_specials :
  parse_name s_CURRENT = None /\ parse_name s_CURRENT_bak = None /\ parse_name s_LOCK = None /\
  parse_name s_LOG = None /\ parse_name s_LOG_old = None.
Proof. repeat split; first [apply parse_name_C | apply parse_name_L]. Qed.

(* the names a directory written by this storage may hold *)
Inductive stored_name : bytes -> Prop :=
| sn_gen fd : int64_ok (fd_num fd) = true -> stored_name (gen_name fd)
| sn_old fd : int64_ok (fd_num fd) = true -> stored_name (gen_old_name fd)
| sn_current : stored_name s_CURRENT
| sn_bak : stored_name s_CURRENT_bak
| sn_pend z : stored_name (pend_name z)
| sn_lock : stored_name s_LOCK
| sn_log : stored_name s_LOG
| sn_logold : stored_name s_LOG_old.

Theorem parse_stored_name l fd : stored_name l -> parse_name l = Some fd -> l = gen_name fd \/ l = gen_old_name fd.
Proof.
  intros Hs Hp. destruct parse_specials as (P1 & P2 & P3 & P4 & P5).
  destruct Hs as [fd' H|fd' H| | |z| | | ]; try congruence.
  - rewrite parse_gen_name in Hp by assumption. inversion Hp. now left.
  - rewrite parse_gen_old_name in Hp by assumption. inversion Hp. now right.
  - rewrite parse_pend_name in Hp. discriminate.
Qed.

Lemma digits_head ds : digits_ok ds -> ds <> [] -> exists d r, ds = d :: r /\ is_digit d = true.
Proof. intros H Hn. destruct ds; [congruence|]. inversion H; subst. eauto. Qed.

Theorem parse_overflow ds rest : digits_ok ds -> ds <> [] -> stops rest -> two63 <= dval 0 ds ->
  parse_name (ds ++ rest) = None /\ parse_name (s_MANIFEST ++ ds ++ rest) = None.
Proof.
  intros Hok Hne Hr Hv.
  assert (signed_digits (ds ++ rest) = None) as Hsd.
  { destruct (digits_head ds Hok Hne) as (d & r & -> & Hd). unfold signed_digits. cbn [app].
    rewrite digit_not_sign by assumption. rewrite Hd. change (d :: r ++ rest) with ((d :: r) ++ rest).
    rewrite take_digits_spec by assumption. unfold mk_int64.
    rewrite (proj2 (N.eqb_neq d 45)) by (apply is_digit_spec in Hd; lia).
    now rewrite (proj2 (N.ltb_ge _ _) Hv). }
  assert (scan_int (ds ++ rest) = None) as Hsi.
  { unfold scan_int. destruct (digits_head ds Hok Hne) as (d & r & E & Hd). rewrite E in *. cbn [app] in *.
    rewrite skip_space_plain by now apply digit_plain. exact Hsd. }
  split.
  - unfold parse_name. rewrite Hsi. unfold manifest_scan.
    destruct (digits_head ds Hok Hne) as (d & r & -> & Hd). cbn [app s_MANIFEST strip_prefix].
    rewrite (proj2 (N.eqb_neq 77 d)) by (apply is_digit_spec in Hd; lia). reflexivity.
  - unfold parse_name. assert (scan_int (s_MANIFEST ++ ds ++ rest) = None) as -> by reflexivity.
    unfold manifest_scan. rewrite strip_prefix_app, Hsi. reflexivity.
Qed.

Theorem parse_leading_zeros k z t : (0 <= z)%Z -> int64_ok z = true -> t <> TManifest ->
  parse_name (repeat 48 k ++ gen_name (FD t z)) = Some (FD t z) /\
  parse_name (s_MANIFEST ++ repeat 48 k ++ fmt_d06 z) = Some (FD TManifest z).
Proof.
  intros Hz0 Hz Ht. apply int64_ok_spec in Hz.
  assert (fmt_d06 z = pad0 6 (dec (Z.to_N z))) as Hf by (unfold fmt_d06; now rewrite (proj2 (Z.ltb_ge z 0) Hz0)).
  destruct (dec_spec (Z.to_N z)) as (ds & Hd & Hok & Hne & Hv).
  destruct (pad0_spec 6 ds Hok Hne) as (Hok' & Hne' & Hv').
  set (zs := repeat 48 k ++ pad0 6 ds).
  assert (digits_ok zs) as Hzs by (apply digits_ok_app; [apply digits_ok_zeros|assumption]).
  assert (zs <> []) as Hzn by (unfold zs; destruct (repeat 48 k); [assumption|discriminate]).
  assert (dval 0 zs = Z.to_N z) as Hzv by (unfold zs; now rewrite dval_app, dval_zeros, Hv', Hv).
  assert (forall rest, stops rest -> scan_int (zs ++ rest) = Some (z, rest)) as Hscan.
  { intros rest Hr. unfold scan_int. destruct (digits_head zs Hzs Hzn) as (d & r & E & Hd').
    assert (skip_space (length (zs ++ rest)) (zs ++ rest) = Some (zs ++ rest)) as ->.
    { rewrite E. cbn [app]. apply skip_space_plain. now apply digit_plain. }
    rewrite signed_digits_pos; try assumption.
    - rewrite Hzv. f_equal. f_equal. lia.
    - rewrite Hzv. lia. }
  split.
  - unfold gen_name. cbn [fd_type fd_num]. rewrite Hf, Hd.
    destruct t; try congruence; rewrite app_assoc; fold zs; unfold parse_name;
      rewrite (Hscan _ (stops_dot _)); reflexivity.
  - rewrite Hf, Hd. rewrite <- (app_nil_r (repeat 48 k ++ pad0 6 ds)). fold zs.
    unfold parse_name. assert (scan_int (s_MANIFEST ++ zs ++ []) = None) as -> by reflexivity.
    unfold manifest_scan. rewrite strip_prefix_app, (Hscan [] (or_introl eq_refl)). reflexivity.
Qed.

Ltac beq_case a b := let E := fresh "E" in destruct (beq a b) eqn:E; [apply beq_eq in E; subst|].

Lemma lookup_set_at {A} (v : list (bytes * A)) n x m :
  lookup (set_at v n x) m = if beq n m then Some x else lookup v m.
Proof.
  induction v as [|[k y] v IH]; cbn [set_at lookup].
  - reflexivity.
  - beq_case k n.
    + cbn [lookup]. destruct (beq n m); reflexivity.
    + cbn [lookup]. rewrite IH. beq_case k m; [|reflexivity]. now rewrite beq_sym, E.
Qed.

Lemma lookup_remove_at {A} (v : list (bytes * A)) n m :
  lookup (remove_at v n) m = if beq n m then None else lookup v m.
Proof.
  induction v as [|[k y] v IH]; cbn [remove_at lookup].
  - destruct (beq n m); reflexivity.
  - beq_case k n.
    + rewrite IH. destruct (beq n m); reflexivity.
    + cbn [lookup]. rewrite IH. beq_case k m; [|reflexivity]. now rewrite beq_sym, E.
Qed.

Lemma lookup_rename_at {A} (v : list (bytes * A)) a b x m : lookup v a = Some x ->
  lookup (rename_at v a b) m = if beq b m then Some x else if beq a m then None else lookup v m.
Proof. intro H. unfold rename_at. rewrite H, lookup_set_at, lookup_remove_at. reflexivity. Qed.

Lemma remove_at_absent {A} (v : list (bytes * A)) n : lookup v n = None -> remove_at v n = v.
Proof.
  induction v as [|[k y] v IH]; cbn [remove_at lookup]; [reflexivity|].
  destruct (beq k n); [discriminate|]. intro H. now rewrite IH.
Qed.

Lemma in_names_lookup {A} (v : list (bytes * A)) n : In n (map fst v) <-> lookup v n <> None.
Proof.
  induction v as [|[k y] v IH]; cbn [map fst In lookup].
  - split; [tauto|congruence].
  - beq_case k n.
    + split; [discriminate|]. now left.
    + rewrite IH. split; [intros [->|H]; [|assumption]|intro H; now right].
      rewrite beq_refl in E. discriminate.
Qed.

Lemma vapply_all_app v a b : vapply_all v (a ++ b) = vapply_all (vapply_all v a) b.
Proof. unfold vapply_all. apply fold_left_app. Qed.

Lemma lookup_write_file v n d m :
  lookup (vapply_all v (write_file_synced n d)) m = if beq n m then Some d else lookup v m.
Proof.
  unfold write_file_synced, vapply_all. cbn [fold_left vapply].
  rewrite lookup_set_at, beq_refl. cbn [app]. rewrite !lookup_set_at. destruct (beq n m); reflexivity.
Qed.

Lemma lookup_switch v p c m : p <> s_CURRENT ->
  lookup (vapply_all v (write_file_synced p c ++ [ORename p s_CURRENT; OSyncDir])) m =
  if beq s_CURRENT m then Some c else if beq p m then None else lookup v m.
Proof.
  intro Hp. rewrite vapply_all_app. set (v1 := vapply_all v (write_file_synced p c)).
  unfold vapply_all at 1. cbn [fold_left vapply].
  assert (lookup v1 p = Some c) as H1 by (unfold v1; now rewrite lookup_write_file, beq_refl).
  rewrite (lookup_rename_at _ _ _ _ _ H1). unfold v1. rewrite lookup_write_file.
  destruct (beq s_CURRENT m); [reflexivity|]. destruct (beq p m); reflexivity.
Qed.

Lemma fmt_d_head z : exists b r, fmt_d z = b :: r /\ (b = 45 \/ is_digit b = true).
Proof.
  unfold fmt_d. destruct (z <? 0)%Z; [eexists _, _; split; [reflexivity|now left]|].
  destruct (dec_spec (Z.to_N z)) as (ds & Hd & Hok & Hne & _). rewrite Hd.
  destruct (digits_head ds Hok Hne) as (d & r & -> & Hd'). eexists _, _. split; [reflexivity|now right].
Qed.

Lemma pend_name_not_current z : pend_name z <> s_CURRENT.
Proof. unfold pend_name, s_CURRENT_dot, s_CURRENT. cbn [app]. congruence. Qed.

Lemma pend_name_not_bak z : pend_name z <> s_CURRENT_bak.
Proof.
  unfold pend_name, s_CURRENT_dot, s_CURRENT_bak. cbn [app]. destruct (fmt_d_head z) as (b & r & -> & [->|H]).
  - congruence.
  - intro E. inversion E; subst. discriminate.
Qed.

Definition unlink_all (v : view) (l : list bytes) : view := fold_left (fun v n => remove_at v n) l v.

Lemma vapply_unlinks v l : vapply_all v (map OUnlink l) = unlink_all v l.
Proof. revert v. induction l; intro v; [reflexivity|]. cbn. apply IHl. Qed.

Lemma lookup_unlink_all l : forall v m,
  lookup (unlink_all v l) m = if existsb (fun n => beq n m) l then None else lookup v m.
Proof.
  induction l as [|n l IH]; intros v m; [reflexivity|].
  cbn [unlink_all fold_left existsb]. fold (unlink_all (remove_at v n) l). rewrite IH, lookup_remove_at.
  destruct (beq n m); cbn [orb]; [destruct (existsb _ l); reflexivity|reflexivity].
Qed.

Lemma unlink_all_absent l : forall v, (forall n, In n l -> lookup v n = None) -> unlink_all v l = v.
Proof.
  induction l as [|n l IH]; intros v H; [reflexivity|].
  cbn [unlink_all fold_left]. fold (unlink_all (remove_at v n) l).
  rewrite remove_at_absent by (apply H; now left). apply IH. intros k Hk. apply H. now right.
Qed.

Lemma check_meta_content fd : int64_ok (fd_num fd) = true -> check_content (meta_content fd) = Some fd.
Proof.
  intro H. unfold check_content, meta_content. rewrite rev_app_distr. cbn [rev app]. cbn [N.eqb Pos.eqb].
  rewrite rev_involutive. now apply parse_gen_name.
Qed.

Lemma check_content_int64 c fd : check_content c = Some fd -> int64_ok (fd_num fd) = true.
Proof.
  unfold check_content. destruct (rev c) as [|b r]; [discriminate|]. destruct (b =? 10); [|discriminate].
  apply parse_name_int64.
Qed.

Lemma try_current_ok v n fd : try_current v n = TOk fd ->
  exists c, lookup v n = Some c /\ check_content c = Some fd /\ has v (gen_name fd) = true.
Proof.
  unfold try_current. destruct (lookup v n) as [c|]; [|discriminate].
  destruct (check_content c) as [fd'|] eqn:E; [|discriminate].
  destruct (has v (gen_name fd')) eqn:H; [|discriminate]. intro X. inversion X; subst. eauto.
Qed.

Lemma try_currents_some v l : forall ce lg n fd,
  tc_cur (try_currents v l ce lg) = Some (n, fd) -> In n l /\ try_current v n = TOk fd.
Proof.
  induction l as [|k l IH]; intros ce lg n fd; cbn [try_currents tc_cur]; [discriminate|].
  destruct (try_current v k) eqn:E.
  1: { cbn. intro H. inversion H; subst. split; [now left|assumption]. }
  all: intro H; destruct (IH _ _ _ _ H); split; [now right|assumption].
Qed.

Lemma try_currents_nofile v l : forall ce lg, (forall n, In n l -> lookup v n = None) ->
  try_currents v l ce lg = TC None ce lg.
Proof.
  induction l as [|k l IH]; intros ce lg H; [reflexivity|].
  cbn [try_currents]. unfold try_current. rewrite (H k) by now left. apply IH. intros n Hn. apply H. now right.
Qed.

Lemma chosen_valid v n fd : g_chosen (get_meta_choice v) = Some (n, fd) ->
  try_current v n = TOk fd /\ (In n (pend_names v) \/ n = s_CURRENT \/ n = s_CURRENT_bak).
Proof.
  unfold get_meta_choice. cbn [g_chosen].
  destruct (tc_cur (try_currents v (pend_names v) false false)) as [[pn pfd]|] eqn:Ep;
  destruct (tc_cur (try_currents v [s_CURRENT; s_CURRENT_bak] false false)) as [[cn cfd]|] eqn:Ec.
  - apply try_currents_some in Ep, Ec. destruct Ep as [Hp1 Hp2], Ec as [Hc1 Hc2].
    destruct (fd_num pfd >? fd_num cfd)%Z; intro H; inversion H; subst.
    + split; [assumption|now left].
    + split; [assumption|]. right. destruct Hc1 as [<-|[<-|[]]]; auto.
  - apply try_currents_some in Ep. intro H. inversion H; subst. split; [tauto|now left].
  - apply try_currents_some in Ec. intro H. inversion H; subst. destruct Ec as [Hc1 Hc2]. split; [assumption|]. right. destruct Hc1 as [<-|[<-|[]]]; auto.
  - discriminate.
Qed.

Definition pnum (n : bytes) : option Z :=
  if is_prefix s_CURRENT_dot n && negb (beq n s_CURRENT_bak) then parse_int64 (skipn 8 n) else None.

Lemma in_pend_nums l z : In z (pend_nums l) <-> exists n, In n l /\ pnum n = Some z.
Proof.
  induction l as [|k l IH]; cbn [pend_nums In].
  - split; [tauto|intros (n & [] & _)].
  - unfold pnum at 1 in IH. fold (pnum k).
    assert ((if is_prefix s_CURRENT_dot k && negb (beq k s_CURRENT_bak)
             then match parse_int64 (skipn 8 k) with Some z0 => z0 :: pend_nums l | None => pend_nums l end
             else pend_nums l) = match pnum k with Some z0 => z0 :: pend_nums l | None => pend_nums l end) as ->.
    { unfold pnum. destruct (is_prefix s_CURRENT_dot k && negb (beq k s_CURRENT_bak)); reflexivity. }
    destruct (pnum k) as [zk|] eqn:Ek.
    + cbn [In]. rewrite IH. split.
      * intros [->|(n & Hn & Hp)]; [exists k; split; [now left|assumption]|exists n; split; [now right|assumption]].
      * intros (n & [->|Hn] & Hp); [left; congruence|right; eauto].
    + rewrite IH. split.
      * intros (n & Hn & Hp). exists n. split; [now right|assumption].
      * intros (n & [->|Hn] & Hp); [congruence|eauto].
Qed.

Lemma in_insert_desc z y l : In y (insert_desc z l) <-> y = z \/ In y l.
Proof.
  induction l as [|x l IH]; cbn [insert_desc In]; [intuition|].
  destruct (x <=? z)%Z; cbn [In]; [intuition|]. rewrite IH. intuition.
Qed.

Lemma in_sort_desc y l : In y (sort_desc l) <-> In y l.
Proof. induction l as [|x l IH]; cbn [sort_desc In]; [tauto|]. rewrite in_insert_desc, IH. intuition. Qed.

Lemma in_pend_names v q : In q (pend_names v) <-> exists n z, lookup v n <> None /\ pnum n = Some z /\ q = pend_name z.
Proof.
  unfold pend_names. rewrite in_map_iff. split.
  - intros (z & <- & Hz). apply in_sort_desc, in_pend_nums in Hz. destruct Hz as (n & Hn & Hp).
    exists n, z. split; [now apply in_names_lookup|]. split; [assumption|reflexivity].
  - intros (n & z & Hn & Hp & ->). exists z. split; [reflexivity|]. apply in_sort_desc, in_pend_nums.
    exists n. split; [now apply in_names_lookup|assumption].
Qed.

Lemma pnum_current : pnum s_CURRENT = None. Proof. reflexivity. Qed.
Lemma pnum_bak : pnum s_CURRENT_bak = None. Proof. reflexivity. Qed.

Theorem get_meta_ro_no_ops v : snd (get_meta_ops true v) = [].
Proof. unfold get_meta_ops. destruct (g_chosen (get_meta_choice v)) as [[n fd]|]; reflexivity. Qed.

Theorem get_meta_ro_view v : snd (get_meta true v) = v.
Proof.
  unfold get_meta. pose proof (get_meta_ro_no_ops v) as H.
  destruct (get_meta_ops true v) as [r ops]. cbn in H. subst ops. reflexivity.
Qed.

Theorem get_meta_fs_ro s : snd (get_meta_fs true s) = s.
Proof.
  unfold get_meta_fs. pose proof (get_meta_ro_no_ops (vol_view s)) as H.
  destruct (get_meta_ops true (vol_view s)) as [r ops]. cbn in H. subst ops. reflexivity.
Qed.

(* the answer does not depend on the mode *)
Theorem get_meta_result_mode ro v : fst (get_meta_ops ro v) = get_meta_result v.
Proof.
  unfold get_meta_result, get_meta_ops. destruct (g_chosen (get_meta_choice v)) as [[n fd]|]; reflexivity.
Qed.

Theorem open_file_ro_pure v : has v s_LOCK = true -> open_file_view true v = v.
Proof. unfold open_file_view. now intros ->. Qed.

Lemma switch_lookup v p c m : p <> s_CURRENT ->
  lookup (vapply_all v (write_file_synced p c ++ [ORename p s_CURRENT; OSyncDir])) s_CURRENT = Some c /\
  (m <> s_CURRENT -> m <> p -> lookup (vapply_all v (write_file_synced p c ++ [ORename p s_CURRENT; OSyncDir])) m = lookup v m) /\
  (lookup (vapply_all v (write_file_synced p c ++ [ORename p s_CURRENT; OSyncDir])) m <> None -> lookup v m <> None \/ m = s_CURRENT).
Proof.
  intro Hp. rewrite !lookup_switch by assumption. split; [now rewrite beq_refl|]. split.
  - intros H1 H2. now rewrite (beq_neq s_CURRENT m), (beq_neq p m) by congruence.
  - beq_case s_CURRENT m; [tauto|]. destruct (beq p m); [congruence|tauto].
Qed.

Lemma set_meta_lookup v fd m :
  let v2 := vapply_all v (set_meta_ops v fd) in
  lookup v2 s_CURRENT = Some (meta_content fd) /\
  (m <> s_CURRENT -> m <> s_CURRENT_bak -> m <> pend_name (fd_num fd) -> lookup v2 m = lookup v m) /\
  (lookup v2 m <> None -> lookup v m <> None \/ m = s_CURRENT \/ m = s_CURRENT_bak).
Proof.
  cbn zeta. unfold set_meta_ops.
  pose proof (fun v0 => switch_lookup v0 _ (meta_content fd) m (pend_name_not_current (fd_num fd))) as Sw.
  destruct (lookup v s_CURRENT) as [b|] eqn:Ec.
  - destruct (beq b (meta_content fd)) eqn:Eb.
    + apply beq_eq in Eb. subst b. cbn [vapply_all fold_left]. split; [assumption|]. split; [reflexivity|tauto].
    + destruct (try_current v s_CURRENT).
      1: { (* the old CURRENT is copied to CURRENT.bak first *)
        rewrite vapply_all_app. destruct (Sw (vapply_all v (write_file_synced s_CURRENT_bak b))) as (A & B & C).
        split; [exact A|]. split.
        - intros H1 H2 H3. rewrite B, lookup_write_file by assumption. now rewrite (beq_neq s_CURRENT_bak m) by congruence.
        - intro H. destruct (C H) as [H'|H']; [|tauto]. rewrite lookup_write_file in H'. beq_case s_CURRENT_bak m; tauto. }
      all: destruct (Sw v) as (A & B & C); split; [exact A|]; split; [auto|tauto].
  - destruct (Sw v) as (A & B & C). split; [exact A|]. split; [auto|tauto].
Qed.

Lemma set_meta_ops_same v fd : lookup v s_CURRENT = Some (meta_content fd) -> set_meta_ops v fd = [].
Proof. intro H. unfold set_meta_ops. now rewrite H, beq_refl. Qed.

Lemma gen_name_not_family fd : int64_ok (fd_num fd) = true ->
  gen_name fd <> s_CURRENT /\ gen_name fd <> s_CURRENT_bak /\ forall z, gen_name fd <> pend_name z.
Proof.
  intro H. pose proof (parse_gen_name fd H) as P. destruct parse_specials as (P1 & P2 & _).
  repeat split; try congruence. intros z E. rewrite E, parse_pend_name in P. discriminate.
Qed.

Lemma existsb_beq_in l m : existsb (fun n => beq n m) l = true <-> In m l.
Proof.
  rewrite existsb_exists. split.
  - intros (x & Hx & E). apply beq_eq in E. now subst.
  - intro H. exists m. split; [assumption|apply beq_refl].
Qed.

Lemma get_meta_ops_unfold ro v :
  get_meta_ops ro v =
  match g_chosen (get_meta_choice v) with
  | Some (name, fd) =>
      (GOk fd,
       if negb ro && (negb (beq name s_CURRENT) || negb (match g_pend (get_meta_choice v) with [] => true | _ => false end))
       then set_meta_ops v fd ++ map OUnlink (g_pend (get_meta_choice v))
       else [])
  | None => (GErr (g_err (get_meta_choice v)), [])
  end.
Proof. reflexivity. Qed.

(* The read-write repair leaves a directory on which GetMeta gives the same answer and whose repair
   operations change nothing any more (they are re-issued only for pending files whose names are not in the
   form %d prints: unlink of names that do not exist). *)
Theorem get_meta_repair_fixpoint v :
  let v' := vapply_all v (snd (get_meta_ops false v)) in
  fst (get_meta_ops false v') = fst (get_meta_ops false v) /\
  vapply_all v' (snd (get_meta_ops false v')) = v' /\
  (pend_names v' = [] -> snd (get_meta_ops false v') = []).
Proof.
  cbn zeta. rewrite !(get_meta_ops_unfold false v).
  destruct (g_chosen (get_meta_choice v)) as [[name fd]|] eqn:Ech; cbn [fst snd].
  2: { cbn [vapply_all fold_left]. rewrite get_meta_ops_unfold, Ech. cbn [fst snd vapply_all fold_left]. auto. }
  destruct (negb false && (negb (beq name s_CURRENT) || negb match g_pend (get_meta_choice v) with [] => true | _ :: _ => false end)) eqn:Erep.
  2: { cbn [vapply_all fold_left]. rewrite get_meta_ops_unfold, Ech, Erep. cbn [fst snd vapply_all fold_left]. auto. }
  (* the repair ran *)
  destruct (chosen_valid _ _ _ Ech) as [Hval _].
  destruct (try_current_ok _ _ _ Hval) as (c & _ & Hc & Hhas).
  pose proof (check_content_int64 _ _ Hc) as Hi.
  destruct (gen_name_not_family fd Hi) as (Hg1 & Hg2 & Hg3).
  change (g_pend (get_meta_choice v)) with (pend_names v).
  rewrite vapply_all_app, vapply_unlinks.
  set (v2 := vapply_all v (set_meta_ops v fd)). set (v' := unlink_all v2 (pend_names v)).
  assert (forall m, lookup v' m = if existsb (fun n => beq n m) (pend_names v) then None else lookup v2 m) as Hl
    by (intro m; unfold v'; apply lookup_unlink_all).
  assert (existsb (fun n => beq n s_CURRENT) (pend_names v) = false) as Hnc.
  { destruct (existsb _ (pend_names v)) eqn:E; [|reflexivity]. apply existsb_beq_in in E.
    apply in_pend_names in E. destruct E as (n & z & _ & _ & E). symmetry in E. now apply pend_name_not_current in E. }
  assert (lookup v' s_CURRENT = Some (meta_content fd)) as Hcur.
  { rewrite Hl, Hnc. apply (set_meta_lookup v fd s_CURRENT). }
  assert (has v' (gen_name fd) = true) as Hhas'.
  { unfold has. rewrite Hl.
    destruct (existsb (fun n => beq n (gen_name fd)) (pend_names v)) eqn:E.
    - apply existsb_beq_in, in_pend_names in E. destruct E as (n & z & _ & _ & E). now apply Hg3 in E.
    - destruct (set_meta_lookup v fd (gen_name fd)) as (_ & Hsame & _). unfold v2. rewrite Hsame by auto.
      exact Hhas. }
  assert (forall q, In q (pend_names v') -> lookup v' q = None) as Hpend.
  { intros q Hq. apply in_pend_names in Hq. destruct Hq as (n & z & Hn & Hp & ->).
    rewrite Hl. destruct (existsb (fun k => beq k (pend_name z)) (pend_names v)) eqn:E; [reflexivity|].
    exfalso. apply not_true_iff_false in E. apply E. apply existsb_beq_in, in_pend_names.
    exists n, z. split; [|split; [assumption|reflexivity]].
    rewrite Hl in Hn. destruct (existsb (fun k => beq k n) (pend_names v)); [congruence|].
    destruct (set_meta_lookup v fd n) as (_ & _ & Hnames). destruct (Hnames Hn) as [H|[-> | ->]]; [assumption| |].
    - rewrite pnum_current in Hp. discriminate.
    - rewrite pnum_bak in Hp. discriminate. }
  (* the second call *)
  assert (g_chosen (get_meta_choice v') = Some (s_CURRENT, fd)) as Hch'.
  { unfold get_meta_choice. cbn [g_chosen]. rewrite (try_currents_nofile v' (pend_names v')) by assumption.
    cbn [tc_cur try_currents]. unfold try_current at 1. rewrite Hcur, (check_meta_content fd Hi), Hhas'. reflexivity. }
  unfold get_meta_ops. rewrite Hch'. cbn [fst snd]. rewrite beq_refl. cbn [negb orb andb].
  change (g_pend (get_meta_choice v')) with (pend_names v').
  split; [reflexivity|]. split.
  - destruct (match pend_names v' with [] => true | _ :: _ => false end); cbn [negb]; [reflexivity|].
    rewrite (set_meta_ops_same v' fd Hcur). cbn [app]. rewrite vapply_unlinks. now apply unlink_all_absent.
  - intros ->. reflexivity.
Qed.

(* the repair is re-issued for ever when a pending file has a name %d does not print: CURRENT.05 *)
Definition ex_noncanon_dir : view :=
  [(s_CURRENT, meta_content (FD TManifest 1)); (gen_name (FD TManifest 1), [109]); (s_CURRENT_dot ++ [48; 53], [120])].

Theorem get_meta_repair_reissued :
  let v' := vapply_all ex_noncanon_dir (snd (get_meta_ops false ex_noncanon_dir)) in
  v' = ex_noncanon_dir /\ snd (get_meta_ops false v') = [OUnlink (pend_name 5)] /\
  fst (get_meta_ops false v') = GOk (FD TManifest 1).
Proof. vm_compute. repeat split; reflexivity. Qed.

Lemma nth_error_set_nth {A} (l : list A) i x : forall j,
  nth_error (set_nth l i x) j = if Nat.eqb i j then (match nth_error l i with Some _ => Some x | None => None end) else nth_error l j.
Proof.
  revert i. induction l as [|y l IH]; intros i j.
  - destruct i, j; cbn; try reflexivity. destruct (Nat.eqb i j); reflexivity.
  - destruct i, j; cbn [set_nth nth_error Nat.eqb]; try reflexivity. apply IH.
Qed.

Definition open_rw (st : fstor) : bool := negb (so_ro st) && negb (so_closed st).
Definition open_ro (st : fstor) : bool := so_ro st && negb (so_closed st).

Definition count (f : fstor -> bool) (l : list fstor) : nat := length (filter f l).

(* the flock state says who is open *)
Definition os_inv (p : proc) : Prop :=
  match p_os p with
  | OsFree => count open_rw (p_stors p) = 0%nat /\ count open_ro (p_stors p) = 0%nat
  | OsShared n => count open_rw (p_stors p) = 0%nat /\ count open_ro (p_stors p) = n /\ (1 <= n)%nat
  | OsExcl => count open_rw (p_stors p) = 1%nat /\ count open_ro (p_stors p) = 0%nat
  end.

Inductive freach : proc -> Prop :=
| fr_init ex : freach (PR ex OsFree [])
| fr_step p c : freach p -> freach (fst (fst (fstep p c))).

Lemma count_app f a b : count f (a ++ b) = (count f a + count f b)%nat.
Proof. unfold count. now rewrite filter_app, app_length. Qed.

Lemma count_set_nth f l i x st : nth_error l i = Some st ->
  (count f (set_nth l i x) + (if f st then 1 else 0) = count f l + (if f x then 1 else 0))%nat.
Proof.
  revert i. induction l as [|y l IH]; intros i H; [destruct i; discriminate|].
  destruct i; cbn [set_nth nth_error] in *.
  - inversion H; subst. unfold count. cbn [filter]. destruct (f st), (f x); cbn [length]; lia.
  - specialize (IH _ H). unfold count in *. cbn [filter]. destruct (f y); cbn [length]; lia.
Qed.

Lemma os_inv_step p c : os_inv p -> os_inv (fst (fst (fstep p c))).
Proof.
  intro I. destruct c as [ro|s|l|s|s m]; cbn [fstep].
  - destruct (negb (p_exists p) && ro); [exact I|].
    unfold os_inv in *. destruct (p_os p) as [|n|] eqn:Eo, ro; cbn [fst p_os p_stors]; try exact I;
      rewrite !count_app; unfold count at 2 4; cbn; lia.
  - destruct (nth_error (p_stors p) s) as [st|] eqn:E; [|exact I].
    destruct (so_closed st) eqn:Ecl; [exact I|]. destruct (so_ro st) eqn:Ero; [exact I|].
    destruct (so_slock st); [exact I|]. cbn [fst]. unfold os_inv in *. cbn [p_os p_stors].
    pose proof (count_set_nth open_rw _ _ (ST false false (Some (so_nlock st)) (so_nlock st + 1)) _ E) as H1.
    pose proof (count_set_nth open_ro _ _ (ST false false (Some (so_nlock st)) (so_nlock st + 1)) _ E) as H2.
    unfold open_rw at 2 4 in H1. unfold open_ro at 2 4 in H2. cbn [so_ro so_closed] in H1, H2. rewrite Ecl, Ero in H1, H2. cbn [negb andb] in H1, H2.
    destruct (p_os p); lia.
  - destruct l as [s id|]; [|exact I].
    destruct (nth_error (p_stors p) s) as [st|] eqn:E; [|exact I].
    destruct (so_slock st) as [cur|]; [|exact I]. destruct (cur =? id); [|exact I].
    cbn [fst]. unfold os_inv in *. cbn [p_os p_stors].
    pose proof (count_set_nth open_rw _ _ (ST (so_ro st) (so_closed st) None (so_nlock st)) _ E) as H1.
    pose proof (count_set_nth open_ro _ _ (ST (so_ro st) (so_closed st) None (so_nlock st)) _ E) as H2.
    unfold open_rw at 2 4 in H1. unfold open_ro at 2 4 in H2. cbn [so_ro so_closed] in H1, H2.
    destruct (p_os p); lia.
  - destruct (nth_error (p_stors p) s) as [st|] eqn:E; [|exact I].
    destruct (so_closed st) eqn:Ecl; [exact I|]. cbn [fst]. unfold os_inv in *. cbn [p_os p_stors].
    pose proof (count_set_nth open_rw _ _ (ST (so_ro st) true (so_slock st) (so_nlock st)) _ E) as H1.
    pose proof (count_set_nth open_ro _ _ (ST (so_ro st) true (so_slock st) (so_nlock st)) _ E) as H2.
    unfold open_rw at 2 4 in H1. unfold open_ro at 2 4 in H2. cbn [so_ro so_closed] in H1, H2. rewrite Ecl in H1, H2.
    unfold os_release. destruct (so_ro st); cbn [negb andb] in H1, H2.
    + destruct (p_os p) as [|n|]; [lia| |lia]. destruct n as [|[|n]]; lia.
    + destruct (p_os p); lia.
  - destruct (nth_error (p_stors p) s); exact I.
Qed.

Theorem os_inv_reach p : freach p -> os_inv p.
Proof. induction 1; [cbn; auto|now apply os_inv_step]. Qed.

Lemma count_pos f l i st : nth_error l i = Some st -> f st = true -> (1 <= count f l)%nat.
Proof.
  revert i. induction l as [|y l IH]; intros i H Hf; [destruct i; discriminate|].
  destruct i; cbn [nth_error] in H.
  - inversion H; subst. unfold count. cbn [filter]. rewrite Hf. cbn. lia.
  - specialize (IH _ H Hf). unfold count in *. cbn [filter]. destruct (f y); cbn [length]; lia.
Qed.

(* one read-write owner: while it is open every OpenFile is refused and changes nothing *)
Theorem fs_single_owner p s st ro :
  freach p -> nth_error (p_stors p) s = Some st -> so_ro st = false -> so_closed st = false ->
  p_exists p = true -> fstep p (FOpenFile ro) = (p, SErrFlock, None).
Proof.
  intros R E Hro Hcl Hex. pose proof (os_inv_reach _ R) as I.
  assert (open_rw st = true) as Hop by (unfold open_rw; now rewrite Hro, Hcl). pose proof (count_pos open_rw _ _ _ E Hop) as Hc.
  unfold os_inv in I. cbn [fstep]. rewrite Hex. cbn [negb andb].
  destruct p as [ex os stors]. cbn [p_os p_stors p_exists] in *. subst ex.
  destruct os; try lia. destruct ro; reflexivity.
Qed.

(* readers share, and exclude the writer *)
Theorem fs_readers_exclude_writer p s st :
  freach p -> nth_error (p_stors p) s = Some st -> so_ro st = true -> so_closed st = false -> p_exists p = true ->
  snd (fst (fstep p (FOpenFile false))) = SErrFlock /\ snd (fst (fstep p (FOpenFile true))) = SOk.
Proof.
  intros R E Hro Hcl Hex. pose proof (os_inv_reach _ R) as I.
  assert (open_ro st = true) as Hop by (unfold open_ro; now rewrite Hro, Hcl). pose proof (count_pos open_ro _ _ _ E Hop) as Hc.
  unfold os_inv in I. cbn [fstep].
  rewrite Hex; cbn [negb andb]. destruct (p_os p); try lia; split; reflexivity.
Qed.

Theorem fs_second_lock p s st id :
  nth_error (p_stors p) s = Some st -> so_closed st = false -> so_ro st = false -> so_slock st = Some id ->
  fstep p (FLock s) = (p, SErrLocked, None).
Proof. intros E H1 H2 H3. cbn [fstep]. now rewrite E, H1, H2, H3. Qed.

Theorem fs_lock_then_unlock p s st :
  nth_error (p_stors p) s = Some st -> so_closed st = false -> so_ro st = false -> so_slock st = None ->
  exists l p1, fstep p (FLock s) = (p1, SOk, Some l) /\
    snd (fst (fstep p1 (FLock s))) = SErrLocked /\
    snd (fst (fstep (fst (fst (fstep p1 (FUnlock l)))) (FLock s))) = SOk.
Proof.
  intros E H1 H2 H3.
  set (st1 := ST false false (Some (so_nlock st)) (so_nlock st + 1)).
  set (p1 := PR (p_exists p) (p_os p) (set_nth (p_stors p) s st1)).
  assert (nth_error (p_stors p1) s = Some st1) as E1
    by (unfold p1; cbn [p_stors]; now rewrite nth_error_set_nth, Nat.eqb_refl, E).
  exists (LK s (so_nlock st)), p1. split; [cbn [fstep]; now rewrite E, H1, H2, H3|].
  split; [now rewrite (fs_second_lock p1 s st1 (so_nlock st) E1)|].
  set (st2 := ST false false None (so_nlock st + 1)).
  set (p2 := PR (p_exists p1) (p_os p1) (set_nth (p_stors p1) s st2)).
  assert (fstep p1 (FUnlock (LK s (so_nlock st))) = (p2, SOk, None)) as ->.
  { cbn [fstep]. rewrite E1. cbn [so_slock st1]. rewrite N.eqb_refl. reflexivity. }
  cbn [fst].
  assert (nth_error (p_stors p2) s = Some st2) as E2
    by (unfold p2; cbn [p_stors]; now rewrite nth_error_set_nth, Nat.eqb_refl, E1).
  cbn [fstep]. rewrite E2. reflexivity.
Qed.

(* Unlock of a lock that is no longer the current one (released before, or a newer lock was granted since)
   changes nothing — in particular it does not release the newer lock *)
Theorem fs_stale_unlock_harmless p s st id :
  nth_error (p_stors p) s = Some st -> so_slock st <> Some id -> fstep p (FUnlock (LK s id)) = (p, SOk, None).
Proof.
  intros E H. cbn [fstep]. rewrite E. destruct (so_slock st) as [cur|]; [|reflexivity].
  destruct (cur =? id) eqn:X; [|reflexivity]. apply N.eqb_eq in X. congruence.
Qed.

Theorem fs_ro_lock_always p s st :
  nth_error (p_stors p) s = Some st -> so_closed st = false -> so_ro st = true ->
  fstep p (FLock s) = (p, SOk, Some LKnone).
Proof. intros E H1 H2. cbn [fstep]. now rewrite E, H1, H2. Qed.

(* Close: the flock is released (the directory can be opened again), every later call reports ErrClosed
   (errReadOnly / ErrInvalidFile where those guards come first), a second Close changes nothing *)
Theorem fs_close p s st :
  freach p -> nth_error (p_stors p) s = Some st -> so_closed st = false -> so_ro st = false -> p_exists p = true ->
  let p1 := fst (fst (fstep p (FClose s))) in
  snd (fst (fstep p (FClose s))) = SOk /\
  p_os p1 = OsFree /\
  fstep p1 (FClose s) = (p1, SErrClosed, None) /\
  fstep p1 (FLock s) = (p1, SErrClosed, None) /\
  (forall m, snd (fst (fstep p1 (FMeth s m))) =
             match m with
             | MSetMeta false | MOpen false | MCreate false | MRemove false | MRename false _ => SErrInvalidFile
             | MRename true true | MLog => SOk
             | _ => SErrClosed
             end) /\
  forall ro, snd (fst (fstep p1 (FOpenFile ro))) = SOk.
Proof.
  intros R E Hcl Hro Hex. pose proof (os_inv_reach _ R) as I.
  assert (open_rw st = true) as Hop by (unfold open_rw; now rewrite Hro, Hcl).
  pose proof (count_pos open_rw _ _ _ E Hop) as Hc.
  assert (p_os p = OsExcl) as Hos by (unfold os_inv in I; destruct (p_os p); [lia|lia|reflexivity]).
  set (st1 := ST false true (so_slock st) (so_nlock st)).
  set (p1 := PR (p_exists p) OsFree (set_nth (p_stors p) s st1)).
  assert (fstep p (FClose s) = (p1, SOk, None)) as Hstep.
  { cbn [fstep]. rewrite E, Hcl, Hos, Hro. reflexivity. }
  cbn zeta. rewrite Hstep. cbn [fst snd].
  assert (nth_error (p_stors p1) s = Some st1) as E1
    by (unfold p1; cbn [p_stors]; now rewrite nth_error_set_nth, Nat.eqb_refl, E).
  split; [reflexivity|]. split; [reflexivity|].
  split; [cbn [fstep]; rewrite E1; reflexivity|].
  split; [cbn [fstep]; rewrite E1; reflexivity|].
  split.
  - intro m. cbn [fstep]. rewrite E1. cbn [fst snd]. unfold guard, st1. cbn [so_closed so_ro].
    destruct m as [b| | |b|b|b|b b'|]; try destruct b; try destruct b'; reflexivity.
  - intro ro. cbn [fstep]. unfold p1. cbn [p_exists p_os]. rewrite Hex. destruct ro; reflexivity.
Qed.

(* the lemmas above, conjoined as Props/C18.v states them *)

Theorem name_roundtrip fd : int64_ok (fd_num fd) = true ->
  parse_name (gen_name fd) = Some fd /\ parse_name (gen_old_name fd) = Some fd /\
  (forall fd', int64_ok (fd_num fd') = true -> gen_name fd' = gen_name fd -> fd' = fd).
Proof.
  intro H. split; [now apply parse_gen_name|split; [now apply parse_gen_old_name|]].
  intros fd' H' E. now apply gen_name_inj.
Qed.

Theorem getmeta_readonly_pure :
  (forall v, snd (get_meta_ops true v) = []) /\
  (forall v, snd (get_meta true v) = v) /\
  (forall s, snd (get_meta_fs true s) = s) /\
  (forall ro v, fst (get_meta_ops ro v) = get_meta_result v).
Proof.
  split; [exact get_meta_ro_no_ops|split; [exact get_meta_ro_view|split; [exact get_meta_fs_ro|exact get_meta_result_mode]]].
Qed.

Theorem open_file_ro_creates_lock : open_file_view true [] = [(s_LOCK, [])].
Proof. reflexivity. Qed.

(* a reachable process state: a read-write storage is open and holds its in-process lock *)
Definition ex_proc : proc :=
  fst (fst (fstep (fst (fst (fstep (PR false OsFree []) (FOpenFile false)))) (FLock 0%nat))).

Theorem ex_proc_reachable :
  freach ex_proc /\ p_os ex_proc = OsExcl /\ p_exists ex_proc = true /\
  nth_error (p_stors ex_proc) 0 = Some (ST false false (Some 0) 1) /\
  snd (fst (fstep (PR false OsFree []) (FOpenFile true))) = SErrNotExist.
Proof. split; [repeat constructor|]. repeat split; reflexivity. Qed.
