(* Store/OpenFlushProofs.v — the tables that the recovery of read-write Open flushes (Store/OpenPath.v flush_memdb).
   (1) The table writer model does not depend on the comparer beyond Compare, and Separator / Successor on the keys it
       is given (Section WriterCong: tw_append_all_cong, tw_close_cong).
   (2) Section Bridge: session.flushMemdb's writer call in the model of Open — Codec/Table.v twrite with Store/OpenPath.v's
       iComparer iwc (isep_bytes / isucc_bytes of Codec/IKey.v) and the filter generator handed to Open — IS
       Lsm/WritePath.v's table_bytes (Lsm/WritePath.v's iwc, options record wo_of) on every list of decodable keys,
       for a user comparer whose Separator / Successor return byte strings (cmp_wf: in Go a []byte always is one; the
       model's lists of N need saying so — Lsm/WritePath.v's iwc refuses an answer that is no byte string, Codec/IKey.v's
       does not look).
   (3) Sections FlushTable, ReplayFlush: hence C01_writer_output_ok applies to the recovery's flush.  The file
       flush_memdb writes passes tfile_okb with the bounds it records in the pending session record and table_check's
       to exactly the pairs of the replay buffer, which are strictly increasing under iComparer and are the stamped
       records of the batches replayed into that buffer since it was last reset (Store/OpenJournalProofs.v
       replay_record_written / replay_recs_written).
   (4) Non-vacuity: goleveldb's default comparer satisfies cmp_wf, and the hypotheses of flush_memdb_table_ok hold
       together on the replay buffer of Store/OpenExample.v's synced batch. *)
From Coq Require Import List NArith ZArith Bool Lia.
From GL Require Import Mem.ListLemmas.
From GL Require Import Base.Bytes Base.Order Base.Cursor Codec.IKey Codec.Block Codec.Table Codec.TableCheck Lsm.Lsm
  Lsm.ReadPath Lsm.ReadPathKey Lsm.ReadPathMem Lsm.WritePath Lsm.WritePathTable Store.OpenPath
  Store.OpenJournalProofs Store.OpenRwProofs Store.OpenTotalProofs.
From GL Require Mem.MemDB.
Import ListNotations.
Open Scope N_scope.

Section WriterCong.
  Variable tp : tparams.
  Variable crc : bytes -> N.
  Variable compress : bytes -> bytes.
  Variables c1 c2 : comparer.
  Variable blockSize ri : N.
  Variable snappy : bool.
  Variable P : bytes -> Prop.
  Hypothesis Hcmp : forall a b, cmp c1 a b = cmp c2 a b.
  Hypothesis Hsep : forall a b, P a -> P b -> sep c1 a b = sep c2 a b.
  Hypothesis Hsucc : forall a, P a -> succ c1 a = succ c2 a.

  Lemma flush_pending_cong w key : P (bw_prev (tw_data w)) -> P key ->
    tw_flush_pending c1 w key = tw_flush_pending c2 w key.
  Proof.
    intros Hp Hk. unfold tw_flush_pending. destruct (bh_len (tw_pending w) =? 0); [reflexivity|].
    destruct key as [|x key]; [rewrite (Hsucc _ Hp)|rewrite (Hsep _ _ Hp Hk)]; reflexivity.
  Qed.

  Lemma flush_pending_nil_cong w : P (bw_prev (tw_data w)) -> tw_flush_pending c1 w [] = tw_flush_pending c2 w [].
  Proof.
    intros Hp. unfold tw_flush_pending. destruct (bh_len (tw_pending w) =? 0); [reflexivity|].
    rewrite (Hsucc _ Hp). reflexivity.
  Qed.

  Lemma tw_append_cong w k v : P (bw_prev (tw_data w)) -> P k ->
    tw_append tp crc compress c1 blockSize ri snappy w k v = tw_append tp crc compress c2 blockSize ri snappy w k v.
  Proof.
    intros Hp Hk. unfold tw_append. rewrite Hcmp. rewrite (flush_pending_cong w k Hp Hk). reflexivity.
  Qed.

  Lemma tw_append_all_cong kvs : forall w, P (bw_prev (tw_data w)) -> Forall (fun kv => P (fst kv)) kvs ->
    tw_append_all tp crc compress c1 blockSize ri snappy w kvs = tw_append_all tp crc compress c2 blockSize ri snappy w kvs /\
    forall w', tw_append_all tp crc compress c1 blockSize ri snappy w kvs = Some w' -> P (bw_prev (tw_data w')).
  Proof.
    induction kvs as [|[k v] r IH]; intros w Hp Hk; cbn [tw_append_all].
    - split; [reflexivity|]. intros w' E. injection E as <-. exact Hp.
    - inversion Hk as [|? ? Hk1 Hkr]; subst. cbn [fst] in Hk1.
      rewrite <- (tw_append_cong w k v Hp Hk1).
      destruct (tw_append tp crc compress c1 blockSize ri snappy w k v) as [w1|] eqn:E1.
      + destruct (tw_append_prev tp crc compress c1 blockSize ri snappy w k v w1 E1) as (Ep & _).
        apply IH; [rewrite Ep; exact Hk1|exact Hkr].
      + split; [reflexivity|discriminate].
  Qed.

  Lemma finish_block_prev w : bw_prev (tw_data (tw_finish_block tp crc compress snappy w)) = bw_prev (tw_data w).
  Proof. unfold tw_finish_block. destruct (write_block _ _ _ _ _ _). reflexivity. Qed.

  Lemma tw_close_cong fgen w : P (bw_prev (tw_data w)) ->
    tw_close tp crc compress c1 ri snappy fgen w = tw_close tp crc compress c2 ri snappy fgen w.
  Proof.
    intros Hp. unfold tw_close.
    set (w1 := if (0 <? bw_n (tw_data w)) || (tw_n w =? 0) then tw_finish_block tp crc compress snappy w else w).
    assert (H1 : P (bw_prev (tw_data w1))).
    { unfold w1. destruct ((0 <? bw_n (tw_data w)) || (tw_n w =? 0)); [rewrite finish_block_prev|]; exact Hp. }
    rewrite (flush_pending_nil_cong w1 H1). reflexivity.
  Qed.
End WriterCong.

(* the user comparer's Separator / Successor return byte strings on byte strings *)
Definition cmp_wf (c : comparer) : Prop :=
  (forall a b d, wf_bytes a -> wf_bytes b -> sep c a b = Some d -> wf_bytes d) /\
  (forall b d, wf_bytes b -> succ c b = Some d -> wf_bytes d).

(* the options of Lsm/WritePath.v that reach the table writer, from what Open is given (the other fields play no role
   in table_bytes) *)
Definition wo_of (blockSize ri : N) (snappy : bool) (fgen : option (bytes * (list (N * list bytes) -> bytes))) : wopts :=
  mkWO blockSize ri snappy
       (match fgen with Some (n, g) => Some (n, fun bl _ => Some (g bl)) | None => None end)
       (fun _ => 0) (fun _ => 0) (fun _ => 0) 0%nat false.

Section Bridge.
  Variable c : comparer.
  Variable kp : kparams.
  Hypothesis cwf : cmp_wf c.
  Variable tp : tparams.
  Variable crc : bytes -> N.
  Variable compress : bytes -> bytes.
  Variable blockSize ri : N.
  Variable snappy : bool.
  Variable fgen : option (bytes * (list (N * list bytes) -> bytes)).

  Local Notation iwo := (OpenPath.iwc kp c).       (* the writer's comparer in the model of Open *)
  Local Notation iww := (WritePath.iwc c kp).      (* ... in the model of the write path *)
  Definition kdec (a : bytes) : Prop := a = [] \/ exists x, ik_dec a = Some x.

  Lemma enc_short_wf z : wf_bytes (uk z) -> enc_short (Some z) = Some (encode_ikey z).
  Proof. intros W. unfold enc_short. apply wf_bytesb_ok in W. rewrite W. reflexivity. Qed.

  Lemma iw_sep a b : kdec a -> kdec b -> sep iwo a b = sep iww a b.
  Proof.
    intros [->|(x & Dx)]; [reflexivity|]. cbn [sep OpenPath.iwc WritePath.iwc]. unfold isep_bytes. rewrite Dx.
    destruct (ik_dec_some a x Dx) as (_ & Sx & _). rewrite Sx.
    intros [->|(y & Dy)]; [reflexivity|]. rewrite Dy. destruct (ik_dec_some b y Dy) as (_ & Sy & _). rewrite Sy.
    destruct (isep c kp x y) as [z|] eqn:Ez; [|reflexivity]. cbn [option_map].
    rewrite enc_short_wf; [reflexivity|].
    unfold isep in Ez. destruct (sep c (uk x) (uk y)) as [d|] eqn:Ed; [|discriminate].
    destruct (_ && _); [|discriminate]. injection Ez as <-. cbn [uk].
    exact (proj1 cwf _ _ _ (ik_dec_wf_uk _ _ Dx) (ik_dec_wf_uk _ _ Dy) Ed).
  Qed.

  Lemma iw_succ a : kdec a -> succ iwo a = succ iww a.
  Proof.
    intros [->|(x & Dx)]; [reflexivity|]. cbn [succ OpenPath.iwc WritePath.iwc]. unfold isucc_bytes. rewrite Dx.
    destruct (ik_dec_some a x Dx) as (_ & Sx & _). rewrite Sx.
    destruct (isucc c kp x) as [z|] eqn:Ez; [|reflexivity]. cbn [option_map].
    rewrite enc_short_wf; [reflexivity|].
    unfold isucc in Ez. destruct (succ c (uk x)) as [d|] eqn:Ed; [|discriminate].
    destruct (_ && _); [|discriminate]. injection Ez as <-. cbn [uk].
    exact (proj2 cwf _ _ (ik_dec_wf_uk _ _ Dx) Ed).
  Qed.

  Theorem twrite_table_bytes kvs : Forall (fun kv => exists x, ik_dec (fst kv) = Some x) kvs ->
    twrite tp crc compress iwo blockSize ri snappy fgen kvs =
    table_bytes c kp tp crc compress (wo_of blockSize ri snappy fgen) kvs.
  Proof.
    intros Hk. unfold twrite, table_bytes. cbn [wo_blockSize wo_ri wo_snappy wo_filter wo_of].
    assert (Hk' : Forall (fun kv => kdec (fst kv)) kvs) by (eapply Forall_impl; [|exact Hk]; intros kv H; right; exact H).
    destruct (tw_append_all_cong tp crc compress iwo iww blockSize ri snappy kdec (fun a b => eq_refl) iw_sep iw_succ
                kvs tw_empty (or_introl eq_refl) Hk') as (E & Hp).
    rewrite <- E. destruct (tw_append_all tp crc compress iwo blockSize ri snappy tw_empty kvs) as [w|]; [|reflexivity].
    cbn [option_map]. specialize (Hp w eq_refl).
    rewrite (tw_close_cong tp crc compress iwo iww ri snappy kdec iw_succ fgen w Hp).
    destruct fgen as [[n g]|]; reflexivity.
  Qed.
End Bridge.

Section FlushTable.
  Variable rp : SR.rparams.
  Variable kp : kparams.
  Hypothesis kpok : kparams_ok kp.
  Hypothesis seek_val : keyTypeSeek kp <= keyTypeVal kp.
  Variable mp : MemDB.mparams.
  Hypothesis mpok : MemDB.mparams_ok mp.
  Variable tp : tparams.
  Hypothesis tpok : tparams_ok tp.
  Variable tcrc : bytes -> N.
  Hypothesis crc_bound : forall b, tcrc b < 2 ^ 32.
  Variable compress : bytes -> bytes.
  Variable decompress : bytes -> option bytes.
  Hypothesis codec_ok : forall x, decompress (compress x) = Some x.
  Hypothesis compress_ne : forall x, compress x <> [].
  Variable snappy : bool.
  Variable fgen : option (bytes * (list (N * list bytes) -> bytes)).
  Variable blockSize ri : N.
  Hypothesis ri_pos : 1 <= ri.
  Variable c : comparer.
  Hypothesis cok : comparer_ok c.
  Hypothesis cwf : cmp_wf c.
  Variable fname : option bytes.
  Variable ufc : bytes -> N -> bytes -> bool.
  Variable verify : bool.

  Local Notation wo := (wo_of blockSize ri snappy fgen).
  Local Notation flushm := (flush_memdb rp kp mp tp tcrc compress snappy fgen blockSize ri c).
  Local Notation okb := (tfile_okb c kp tp tcrc decompress fname ufc verify ri).

  (* the side conditions of C01_writer_output_ok for one buffer: the computable size condition of the writer theorem
     (C13: every block, handle and the file fit their fields) and, when a filter policy is configured, the
     no-false-negative condition of C16 on the file written *)
  Definition flush_side_ok (num : N) (kvs : list (bytes * bytes)) : Prop :=
    write_sizes_ok c kp tp tcrc compress wo kvs = true /\
    (fgen = None \/
     forall data, table_bytes c kp tp tcrc compress wo kvs = Some data ->
       filter_part c tp tcrc decompress fname ufc verify (mkTF num (key_first kvs) (key_last kvs) data) = true).

  Theorem flush_memdb_table_ok st st' :
    mem_ok c kp mp (r_mdb st) -> mem_pairs mp (r_mdb st) <> [] ->
    flush_side_ok (Z.to_N (s_next (c_sess (r_c st)))) (mem_pairs mp (r_mdb st)) ->
    flushm st = OOk st' ->
    let kvs := mem_pairs mp (r_mdb st) in
    let num := s_next (c_sess (r_c st)) in
    exists file,
      table_bytes c kp tp tcrc compress wo kvs = Some file /\
      c_files (r_c st') = f_set (c_files (r_c st)) (SW.FTable, Z.to_N num) file /\
      s_next (c_sess (r_c st')) = (num + 1)%Z /\ s_levels (c_sess (r_c st')) = s_levels (c_sess (r_c st)) /\
      r_mdb st' = r_mdb st /\
      let t := SR.mkat 0%Z num (Z.of_N (lenN file)) (key_first kvs) (key_last kvs) in
      SR.sr_adds (r_rec st') = SR.sr_adds (r_rec st) ++ [t] /\
      let f := tfile_of (c_files (r_c st')) t in
      f = mkTF (Z.to_N num) (key_first kvs) (key_last kvs) file /\
      okb f = true /\
      table_check (ibc c) (tf_reader c tp tcrc decompress fname ufc verify f) ri = Some kvs /\
      Cursor.sorted (ibc c) kvs /\
      map (entry_of) kvs = mem_entries mp (Some (r_mdb st)).
  Proof.
    intros Hm Hne (Hsz & Hfl) E. cbv zeta.
    pose proof Hm as [(A & L & I) Hkeys].
    pose proof (mem_pairs_sorted c kp seek_val mp mpok (r_mdb st) A L I) as Hs.
    assert (Hk : Forall (fun kv => key_okb kp (fst kv) = true) (mem_pairs mp (r_mdb st))).
    { apply Forall_forall. unfold mem_keys_okb in Hkeys. rewrite forallb_forall in Hkeys. exact Hkeys. }
    assert (Hd : Forall (fun kv => exists x, ik_dec (fst kv) = Some x) (mem_pairs mp (r_mdb st))).
    { eapply Forall_impl; [|exact Hk]. intros kv H. destruct (key_okb_dec kp _ H) as (x & D & _). exists x. exact D. }
    revert E. unfold flush_memdb.
    rewrite (twrite_table_bytes c kp cwf tp tcrc compress blockSize ri snappy fgen _ Hd).
    destruct (table_bytes c kp tp tcrc compress wo (mem_pairs mp (r_mdb st))) as [file|] eqn:Eb; [|discriminate].
    intros E. injection E as <-. cbn [r_c r_rec r_mdb c_files c_sess s_next s_levels SR.add_table SR.sr_adds].
    exists file. split; [reflexivity|]. split; [reflexivity|]. split; [reflexivity|]. split; [reflexivity|]. split; [reflexivity|].
    set (kvs := mem_pairs mp (r_mdb st)) in *.
    set (num := s_next (c_sess (r_c st))) in *.
    assert (Emin : match kvs with kv :: _ => fst kv | [] => [] end = key_first kvs) by reflexivity.
    assert (Emax : fst (last kvs ([], [])) = key_last kvs).
    { destruct kvs as [|kv r]; [reflexivity|]. rewrite last_cons_default. reflexivity. }
    rewrite Emin, Emax. split; [reflexivity|].
    assert (Ef : tfile_of (f_set (c_files (r_c st)) (SW.FTable, Z.to_N num) file)
                          (SR.mkat 0%Z num (Z.of_N (lenN file)) (key_first kvs) (key_last kvs)) =
                 mkTF (Z.to_N num) (key_first kvs) (key_last kvs) file).
    { unfold tfile_of. cbn [SR.at_num SR.at_imin SR.at_imax]. rewrite f_lookup_set_same. reflexivity. }
    rewrite Ef. split; [reflexivity|].
    assert (Hfl' : wo_filter wo = None \/
                   filter_part c tp tcrc decompress fname ufc verify (mkTF (Z.to_N num) (key_first kvs) (key_last kvs) file) = true).
    { destruct Hfl as [->|H]; [left; reflexivity|right; exact (H file eq_refl)]. }
    destruct (writer_output_ok c cok kp kpok tp tpok tcrc crc_bound compress decompress codec_ok compress_ne fname ufc verify wo
                ri_pos (Z.to_N num) kvs file Hs Hne Hk Eb Hsz Hfl') as (O1 & _ & O3).
    split; [exact O1|]. split; [exact O3|]. split; [exact Hs|reflexivity].
  Qed.
End FlushTable.

(* One journal record in read-write mode (Store/OpenPath.v replay_record with flush = true) is the read-only step —
   whose buffer afterwards holds what it held plus the stamped records of the batch, when the sequence rule accepts it —
   followed, when the buffer has reached the write buffer size, by flush_memdb of exactly that buffer and a Reset.  So
   the buffer a flush writes out holds exactly the stamped records of the batches accepted since the last Reset (the
   recovery resets the buffer at the start of every journal and after every flush), and flush_memdb_table_ok says the
   table holds exactly those, in iComparer order. *)
Section ReplayFlush.
  Variable rp : SR.rparams.
  Variable kp : kparams.
  Hypothesis kpok : kparams_ok kp.
  Hypothesis seek_val : keyTypeSeek kp <= keyTypeVal kp.
  Variable mp : MemDB.mparams.
  Hypothesis mpok : MemDB.mparams_ok mp.
  Variable tp : tparams.
  Variable tcrc : bytes -> N.
  Variable compress : bytes -> bytes.
  Variable snappy : bool.
  Variable fgen : option (bytes * (list (N * list bytes) -> bytes)).
  Variable blockSize ri : N.
  Variable c : comparer.
  Hypothesis cok : comparer_ok c.

  Local Notation bhl := 12.
  Local Notation minv := (OpenJournalProofs.mem_inv kp mp c).
  Local Notation flushm := (flush_memdb rp kp mp tp tcrc compress snappy fgen blockSize ri c).
  Local Notation rrec := (replay_record rp kp bhl mp tp tcrc compress snappy fgen blockSize ri c).
  Local Notation ents st := (mem_entries mp (Some (r_mdb st))).

  Theorem replay_record_rw_decompose o j b st st' :
    oo_strict_j o = false -> OpenJournalProofs.jb_ok kp b -> minv st -> rrec o true j (jb_enc kp b) st = OOk st' ->
    exists st1,
      rrec o false j (jb_enc kp b) st = OOk st1 /\ minv st1 /\ r_c st1 = r_c st /\ r_rec st1 = r_rec st /\
      (if fst b <? r_seq st then r_mdb st1 = r_mdb st
       else forall x, In x (ents st1) <-> In x (ents st) \/ In x (jb_entries kp b)) /\
      (st' = st1 \/
       exists st2, flushm st1 = OOk st2 /\ r_c st' = r_c st2 /\ r_rec st' = r_rec st2 /\ ents st' = [] /\ minv st').
  Proof.
    intros Hns Hb Hinv.
    destruct (replay_record_written rp kp kpok seek_val mp mpok tp tcrc compress snappy fgen blockSize ri c cok
                o j b st Hns Hb Hinv) as (st1 & E1 & Ec1 & Er1 & Hinv1 & Hcase).
    intros E. exists st1. split; [exact E1|]. split; [exact Hinv1|]. split; [exact Ec1|]. split; [exact Er1|].
    split.
    { destruct (fst b <? r_seq st); [exact (proj1 (proj2 Hcase))|exact (proj2 (proj2 Hcase))]. }
    revert E. destruct (replay_record_flush rp kp mp tp tcrc compress snappy fgen blockSize ri c _ _ _ _ _ E1) as [-> | ->]; intros E.
    - injection E as <-. left. reflexivity.
    - destruct (flush_reset_facts rp kp seek_val mp mpok tp tcrc compress snappy fgen blockSize ri c _ _ Hinv1 E)
        as (st2 & Ef & Ec & Er & _ & _ & He & Hinv' & _).
      right. exists st2. split; [exact Ef|]. split; [exact Ec|]. split; [exact Er|]. split; [exact He|exact Hinv'].
  Qed.
End ReplayFlush.

From GL Require Import Codec.BytesCmp Codec.BytesCmpProofs Codec.TblCrc Store.OpenPathProofs Store.OpenExample
  Gen.ConstsOk Gen.ConstsOkMem Gen.Inst Gen.InstTbl Gen.InstMem Gen.InstRecord.

(* goleveldb's default comparer returns byte strings *)
Lemma bytewise_wf : cmp_wf bytewise.
Proof.
  split.
  - induction a as [|x a IH]; intros b d Wa Wb; [discriminate|]. destruct b as [|y b]; [discriminate|].
    cbn [sep bytewise bsep]. inversion Wa as [|? ? Wx Wa']; subst. inversion Wb as [|? ? Wy Wb']; subst.
    destruct (x =? y).
    + destruct (bsep a b) as [d'|] eqn:E; [|discriminate]. cbn [option_map]. intros H. injection H as <-.
      constructor; [exact Wx|]. exact (IH b d' Wa' Wb' E).
    + destruct ((x <? 255) && (x + 1 <? y)) eqn:E; [|discriminate]. intros H. injection H as <-.
      constructor; [|constructor]. unfold wf_byte. apply andb_prop in E as [E _]. apply N.ltb_lt in E. lia.
  - induction b as [|x b IH]; intros d W; [discriminate|]. cbn [succ bytewise bsucc]. inversion W as [|? ? Wx Wb']; subst.
    destruct (x =? 255) eqn:E.
    + destruct (bsucc b) as [d'|] eqn:E2; [|discriminate]. cbn [option_map]. intros H. injection H as <-.
      constructor; [exact Wx|]. exact (IH d' Wb' E2).
    + intros H. injection H as <-. constructor; [|constructor]. unfold wf_byte in *. apply N.eqb_neq in E. lia.
Qed.

(* the hypotheses of flush_memdb_table_ok hold together: the replay buffer after the synced batch of the example image
   (Store/OpenExample.v ox_b1: Put a, Delete b at sequence numbers 1, 2), flushed as table 0 with the generated
   constants, the real CRC-32C, 4 KiB blocks, restart interval 16, no compression, no filter *)
Lemma fx_flush_hyps :
  cmp_wf bytewise /\ (forall b, tbl_crc b < 2 ^ 32) /\
  exists st st',
    mem_ok bytewise kp mp (r_mdb st) /\ length (mem_pairs mp (r_mdb st)) = 2%nat /\
    flush_side_ok kp tblp tbl_crc (fun x => 0 :: x) (fun x => Some (tl x)) false None 4096 16 bytewise None (fun _ _ _ => true) true
      (Z.to_N (s_next (c_sess (r_c st)))) (mem_pairs mp (r_mdb st)) /\
    flush_memdb rp kp mp tblp tbl_crc (fun x => 0 :: x) false None 4096 16 bytewise st = OOk st'.
Proof.
  split; [exact bytewise_wf|]. split; [intros b; unfold tbl_crc, crc_mask; apply N.mod_lt; discriminate|].
  destruct (new_mem_ok kp ox_seek_val mp mp_ok bytewise) as (d0 & E0 & Hm0 & He0).
  set (st0 := mkRJ (mkC [] None sess_new [] []) SR.sr_empty 1 d0 [] []).
  assert (Hinv0 : OpenJournalProofs.mem_inv kp mp bytewise st0).
  { split; [exact Hm0|]. split; [constructor|]. cbn [r_mdb st0]. intros x Hx. rewrite He0 in Hx. destruct Hx. }
  assert (Hb : OpenJournalProofs.jb_ok kp ox_b1).
  { pose proof ox_jb_ok as H. inversion H; subst. assumption. }
  destruct (replay_record_written rp kp kp_ok ox_seek_val mp mp_ok tblp tbl_crc (fun x => 0 :: x) false None 4096 16 bytewise
              bytewise_ok (ox_opts false) 1 ox_b1 st0 eq_refl Hb Hinv0) as (st1 & E1 & _ & _ & Hinv1 & _).
  exists st1.
  destruct (flush_memdb_total rp kp ox_seek_val mp mp_ok tblp tbl_crc (fun x => 0 :: x) false None 4096 16 bytewise st1
              (proj1 Hinv1)) as (st2 & E2).
  exists st2. split; [exact (proj1 Hinv1)|].
  vm_compute in E0. injection E0 as <-. vm_compute in E1. injection E1 as <-.
  split; [vm_compute; reflexivity|]. split; [|exact E2].
  split; [vm_compute; reflexivity|left; reflexivity].
Qed.
