(* Store/MemStorageProofs.v — memStorage (Store/MemStorage.v) refines the storage contract on every call that is not in
   [dev_mem]; the invariant of deviation-free runs.  The same for the checker's storage (vstor) outside [dev_vstor]. *)
From Coq Require Import List NArith ZArith Bool Lia Arith PeanoNat.
From GL Require Import Base.Bytes Store.StorContract Store.MemStorage.
From GL Require Mem.ListLemmas.
Import ListNotations.

Lemma xfd_eqb_spec a b : reflect (a = b) (xfd_eqb a b).
Proof.
  destruct a as [t n], b as [t' n']. unfold xfd_eqb. cbn [x_ty x_num].
  destruct (N.eqb_spec t t'); destruct (Z.eqb_spec n n'); cbn [andb]; constructor; congruence.
Qed.

Lemma xfd_eqb_refl a : xfd_eqb a a = true.
Proof. destruct (xfd_eqb_spec a a); congruence. Qed.

Section Maps.
  Context {A B : Type}.
  Variable g : xfd * A -> xfd * B.
  Hypothesis g_key : forall e, fst (g e) = fst e.

  Lemma dlookup_map k (d : list (xfd * A)) :
    dlookup k (map g d) = match dlookup k d with
                          | Some v => Some (snd (g (k, v)))
                          | None => None
                          end.
  Proof.
    induction d as [|[k' v] d IH]; [reflexivity|]. cbn [map dlookup].
    pose proof (g_key (k', v)) as E. destruct (g (k', v)) as [k'' w] eqn:G. cbn [fst] in E. subst k''.
    destruct (xfd_eqb_spec k k') as [->|N]; [now rewrite G|apply IH].
  Qed.

  Lemma dremove_map k (d : list (xfd * A)) : dremove k (map g d) = map g (dremove k d).
  Proof.
    induction d as [|[k' v] d IH]; [reflexivity|]. cbn [map dremove].
    pose proof (g_key (k', v)) as E. destruct (g (k', v)) as [k'' w] eqn:G. cbn [fst] in E. subst k''.
    destruct (xfd_eqb k k'); [exact IH|]. cbn [map]. now rewrite G, IH.
  Qed.

  Lemma dset_map k v (d : list (xfd * A)) :
    dset k (snd (g (k, v))) (map g d) = map g (dset k v d).
  Proof.
    induction d as [|[k' v'] d IH]; cbn [map dset].
    - pose proof (g_key (k, v)) as E. destruct (g (k, v)) as [k'' w]. cbn [fst snd] in *. now subst.
    - pose proof (g_key (k', v')) as E. destruct (g (k', v')) as [k'' w] eqn:G. cbn [fst] in E. subst k''.
      destruct (xfd_eqb k k'); cbn [map].
      + pose proof (g_key (k, v)) as E. destruct (g (k, v)) as [k'' w']. cbn [fst snd] in *. now subst.
      + now rewrite G, IH.
  Qed.
End Maps.

Lemma In_dremove {A} k (d : list (xfd * A)) e : In e (dremove k d) -> In e d /\ fst e <> k.
Proof.
  induction d as [|[k' v] d IH]; cbn [dremove]; [intros []|].
  destruct (xfd_eqb_spec k k') as [->|N].
  - intros H. destruct (IH H). split; [right|]; auto.
  - intros [<-|H]; [split; [left; reflexivity|cbn; congruence]|]. destruct (IH H). split; [right|]; auto.
Qed.

Definition dkeys {A} (d : list (xfd * A)) : list xfd := map fst d.

Lemma NoDup_map_dremove {A B} (f : xfd * A -> B) k (d : list (xfd * A)) : NoDup (map f d) -> NoDup (map f (dremove k d)).
Proof.
  induction d as [|[k' v] d IH]; cbn [dremove map]; intros H; [constructor|].
  inversion H as [|? ? Hn Hd]; subst. destruct (xfd_eqb k k'); [auto|].
  cbn [map]. constructor; [|auto]. intros Hin. apply Hn.
  apply in_map_iff in Hin. destruct Hin as (e & E1 & E2). apply In_dremove in E2.
  apply in_map_iff. exists e. split; [exact E1|apply E2].
Qed.

Lemma dkeys_dremove {A} k (d : list (xfd * A)) : NoDup (dkeys d) -> NoDup (dkeys (dremove k d)) /\ ~ In k (dkeys (dremove k d)).
Proof.
  unfold dkeys. intros H. split; [apply NoDup_map_dremove, H|].
  intros Hin. apply in_map_iff in Hin. destruct Hin as (e & E1 & E2). apply In_dremove in E2. exact (proj2 E2 E1).
Qed.

Lemma In_dkeys_dremove {A} k k0 (d : list (xfd * A)) : In k0 (dkeys (dremove k d)) -> In k0 (dkeys d).
Proof.
  unfold dkeys. intros H. apply in_map_iff in H. destruct H as (e & E1 & E2). apply In_dremove in E2.
  apply in_map_iff. exists e. split; [exact E1|apply E2].
Qed.

Lemma dlookup_In {A} k (d : list (xfd * A)) v : dlookup k d = Some v -> In (k, v) d.
Proof.
  induction d as [|[k' v'] d IH]; cbn [dlookup]; [discriminate|].
  destruct (xfd_eqb_spec k k') as [->|N]; [intros [= ->]; left; reflexivity|intros H; right; auto].
Qed.

Lemma dlookup_None {A} k (d : list (xfd * A)) : dlookup k d = None -> ~ In k (dkeys d).
Proof.
  unfold dkeys. induction d as [|[k' v'] d IH]; cbn [dlookup map fst]; [intros _ []|].
  destruct (xfd_eqb_spec k k') as [->|N]; [discriminate|]. intros H [E|Hin]; [congruence|]. exact (IH H Hin).
Qed.

Lemma In_nodup_lookup {A} k v (d : list (xfd * A)) : NoDup (dkeys d) -> In (k, v) d -> dlookup k d = Some v.
Proof.
  unfold dkeys. induction d as [|[k' v'] d IH]; cbn [dlookup map fst]; [intros _ []|].
  intros H Hin. inversion H as [|? ? Hn Hd]; subst.
  destruct (xfd_eqb_spec k k') as [->|N].
  - destruct Hin as [[= ->]|Hin]; [reflexivity|]. exfalso. apply Hn. apply in_map_iff. exists (k', v). auto.
  - destruct Hin as [[= -> ->]|Hin]; [congruence|]. auto.
Qed.

(* dset on a list without repeated keys: the entries are the old ones with another key, plus the new one *)
Lemma In_dset_nodup {A} k v (d : list (xfd * A)) e :
  NoDup (dkeys d) -> (In e (dset k v d) <-> e = (k, v) \/ (In e d /\ fst e <> k)).
Proof.
  unfold dkeys. induction d as [|[k' v'] d IH]; cbn [dset map fst]; intros H.
  - split; [intros [<-|[]]; auto|intros [->|([] & _)]; left; reflexivity].
  - inversion H as [|? ? Hn Hd]; subst. destruct (xfd_eqb_spec k k') as [->|N].
    + split.
      * intros [<-|Hin]; [auto|]. right. split; [right; exact Hin|]. intros E. apply Hn.
        apply in_map_iff. exists e. auto.
      * intros [->|([E|Hin] & Hne)]; [left; reflexivity| |right; exact Hin].
        subst e. cbn in Hne. congruence.
    + specialize (IH Hd). split.
      * intros [<-|Hin]; [right; split; [left; reflexivity|cbn; congruence]|].
        apply IH in Hin. destruct Hin as [->|(Hin & Hne)]; [auto|right; split; [right|]; auto].
      * intros [->|([<-|Hin] & Hne)]; [right; apply IH; auto|left; reflexivity|right; apply IH; auto].
Qed.

Lemma dkeys_dset {A} k v (d : list (xfd * A)) : NoDup (dkeys d) -> NoDup (dkeys (dset k v d)).
Proof.
  unfold dkeys. induction d as [|[k' v'] d IH]; cbn [dset map fst]; intros H.
  - constructor; [intros []|constructor].
  - inversion H as [|? ? Hn Hd]; subst. destruct (xfd_eqb_spec k k') as [->|N]; cbn [map fst].
    + constructor; assumption.
    + constructor; [|auto]. intros Hin. apply in_map_iff in Hin. destruct Hin as (e & E1 & E2).
      apply (In_dset_nodup k v d e Hd) in E2. destruct E2 as [->|(E2 & _)]; [cbn in E1; congruence|].
      apply Hn. apply in_map_iff. exists e. auto.
Qed.

Lemma set_nth_length {A} (l : list A) : forall i x, length (set_nth l i x) = length l.
Proof. induction l as [|y l IH]; intros [|i] x; cbn [set_nth length]; auto. Qed.

Lemma nth_error_set_nth {A} (l : list A) : forall i j x,
  nth_error (set_nth l i x) j = if Nat.eqb i j then (if Nat.ltb i (length l) then Some x else None) else nth_error l j.
Proof.
  induction l as [|y l IH]; intros i j x.
  - cbn [set_nth length]. destruct (Nat.eqb i j); destruct j; reflexivity.
  - destruct i as [|i]; destruct j as [|j]; cbn [set_nth nth_error Nat.eqb length]; try reflexivity.
    rewrite IH. destruct (Nat.eqb i j); [|reflexivity].
    change (Nat.ltb (S i) (S (length l))) with (Nat.ltb i (length l)). reflexivity.
Qed.

Lemma nth_set_nth {A} (l : list A) d : forall i j x,
  nth j (set_nth l i x) d = if Nat.eqb i j && Nat.ltb i (length l) then x else nth j l d.
Proof.
  induction l as [|y l IH]; intros i j x.
  - cbn [set_nth length]. rewrite andb_false_r. reflexivity.
  - destruct i as [|i]; destruct j as [|j]; cbn [set_nth nth Nat.eqb length andb]; try reflexivity.
    rewrite IH. change (Nat.ltb (S i) (S (length l))) with (Nat.ltb i (length l)). reflexivity.
Qed.

Lemma map_set_nth {A B} (f : A -> B) (l : list A) : forall i x, map f (set_nth l i x) = set_nth (map f l) i (f x).
Proof. induction l as [|y l IH]; intros [|i] x; cbn [set_nth map]; try reflexivity. now rewrite IH. Qed.

(* [wfile x] = the object handle x writes to, if x is a writer.  memStorage's and the file storage's handle lists
   are both read through this one function. *)
Section LastW.
  Context {H : Type} (wfile : H -> option nat).

  Fixpoint lastw_from (hs : list H) (j i : nat) (acc : option nat) : option nat :=
    match hs with
    | [] => acc
    | x :: hs' => lastw_from hs' j (S i) (match wfile x with
                                          | Some j' => if Nat.eqb j' j then Some i else acc
                                          | None => acc
                                          end)
    end.
  Definition lastw (hs : list H) (j : nat) : option nat := lastw_from hs j 0 None.

  Lemma lastw_from_app hs : forall x j i acc,
    lastw_from (hs ++ [x]) j i acc =
    match wfile x with
    | Some j' => if Nat.eqb j' j then Some (i + length hs)%nat else lastw_from hs j i acc
    | None => lastw_from hs j i acc
    end.
  Proof.
    induction hs as [|h hs IH]; intros x j i acc; cbn [app lastw_from length].
    - rewrite Nat.add_0_r. reflexivity.
    - rewrite IH. destruct (wfile x) as [j'|]; [|reflexivity]. destruct (Nat.eqb j' j); [f_equal; lia|reflexivity].
  Qed.

  Lemma lastw_app hs x j :
    lastw (hs ++ [x]) j = match wfile x with
                          | Some j' => if Nat.eqb j' j then Some (length hs) else lastw hs j
                          | None => lastw hs j
                          end.
  Proof. unfold lastw. rewrite lastw_from_app. reflexivity. Qed.

  Lemma lastw_from_sound hs : forall j i acc k,
    lastw_from hs j i acc = Some k ->
    acc = Some k \/ (i <= k /\ exists x, nth_error hs (k - i) = Some x /\ wfile x = Some j)%nat.
  Proof.
    induction hs as [|h hs IH]; intros j i acc k; cbn [lastw_from]; [auto|]. intros E. apply IH in E.
    destruct E as [E|(Hle & x & Hn & Hx)].
    - destruct (wfile h) as [j0|] eqn:Wh; [|auto]. destruct (Nat.eqb_spec j0 j) as [->|N]; [|auto].
      injection E as <-. right. split; [lia|]. exists h. rewrite Nat.sub_diag. auto.
    - right. split; [lia|]. exists x. replace (k - i)%nat with (S (k - S i)) by lia. auto.
  Qed.

  Lemma lastw_sound hs j k : lastw hs j = Some k -> exists x, nth_error hs k = Some x /\ wfile x = Some j.
  Proof.
    unfold lastw. intros E. apply lastw_from_sound in E. destruct E as [E|(_ & x & Hn & Hx)]; [discriminate|].
    rewrite Nat.sub_0_r in Hn. eauto.
  Qed.

  (* replacing a handle by one on the same object (closing it, moving its position) changes no last writer *)
  Lemma lastw_set hs i x j :
    (forall y, nth_error hs i = Some y -> wfile y = wfile x) -> lastw (set_nth hs i x) j = lastw hs j.
  Proof.
    unfold lastw. generalize 0%nat (@None nat). revert i.
    induction hs as [|h hs IH]; intros i k acc E; [destruct i; reflexivity|].
    destruct i as [|i]; cbn [set_nth lastw_from]; [now rewrite (E h eq_refl)|]. apply IH. exact E.
  Qed.
End LastW.

Definition mw_file (h : mhandle) : option nat := match h with MW j _ => Some j | MR _ _ _ _ => None end.

Lemma last_writer_eq hs j : last_writer hs j = lastw mw_file hs j.
Proof.
  unfold last_writer, lastw. generalize 0%nat (@None nat).
  induction hs as [|h hs IH]; intros i acc; [reflexivity|]. destruct h; apply IH.
Qed.

Lemma lw_app_writer hs j c j' :
  last_writer (hs ++ [MW j c]) j' = if Nat.eqb j j' then Some (length hs) else last_writer hs j'.
Proof. rewrite !last_writer_eq. exact (lastw_app mw_file hs (MW j c) j'). Qed.

Lemma lw_app_reader hs j s e c j' : last_writer (hs ++ [MR j s e c]) j' = last_writer hs j'.
Proof. rewrite !last_writer_eq. exact (lastw_app mw_file hs (MR j s e c) j'). Qed.

Lemma lw_sound hs j k : last_writer hs j = Some k -> exists c, nth_error hs k = Some (MW j c).
Proof.
  rewrite last_writer_eq. intros E. destruct (lastw_sound _ _ _ _ E) as ([j' c|] & Hn & [= ->]). eauto.
Qed.

Lemma lw_set hs i x j :
  (forall y, nth_error hs i = Some y -> mw_file y = mw_file x) -> last_writer (set_nth hs i x) j = last_writer hs j.
Proof. rewrite !last_writer_eq. apply lastw_set. Qed.

Definition unclosed (m : mst) (i : nat) (j : nat) : Prop :=
  exists hd, nth_error (m_hs m) i = Some hd /\ h_closed hd = false /\ h_file hd = j.

Record minv (m : mst) : Prop := MI {
  mi_keys : NoDup (dkeys (m_dir m));
  mi_files : NoDup (map snd (m_dir m));
  mi_range : forall e, In e (m_dir m) -> (snd e < length (m_files m))%nat;
  mi_open : forall i j, unclosed m i j -> mf_open (m_file m j) = true;
  mi_uniq : forall i i' j, unclosed m i j -> unclosed m i' j -> i = i';
  mi_last : forall i j, nth_error (m_hs m) i = Some (MW j false) -> last_writer (m_hs m) j = Some i;
  mi_meta : forall f, m_meta m = Some f -> xfd_ok f = true }.

Lemma minv_empty : minv m_empty.
Proof.
  constructor; cbn; try constructor; try (intros; contradiction); try discriminate.
  - intros i j (hd & H & _). destruct i; discriminate.
  - intros i i' j (hd & H & _). destruct i; discriminate.
  - intros i j H. destruct i; discriminate.
Qed.

Lemma mnorm_small f : xfd_ok f = true -> big_num f = false -> mnorm f = f.
Proof.
  unfold big_num, xfd_ok, mnorm. intros H. rewrite H. cbn [andb]. intros Hb.
  apply andb_prop in H. destruct H as (_ & Hn). apply Z.leb_le in Hn. apply Z.leb_gt in Hb.
  destruct f as [t n]. cbn [x_ty x_num] in *. f_equal. apply Z.mod_small. lia.
Qed.

Definition absval (m : mst) (j : nat) : cfile := (mf_data (m_file m j), last_writer (m_hs m) j).

Lemma abs_entry_key m e : fst (abs_entry m e) = fst e.
Proof. reflexivity. Qed.

Lemma abs_dir_ext m m' d :
  (forall e, In e d -> absval m' (snd e) = absval m (snd e)) -> map (abs_entry m') d = map (abs_entry m) d.
Proof.
  intros H. apply map_ext_in. intros e He. unfold abs_entry. specialize (H e He). unfold absval in H.
  injection H as -> ->. reflexivity.
Qed.

Lemma m_file_app_old m x j : (j < length (m_files m))%nat -> nth j (m_files m ++ [x]) mf_default = m_file m j.
Proof. intros H. unfold m_file. apply app_nth1. exact H. Qed.

Lemma dset_absent {A} k (v : A) d : dlookup k d = None -> dset k v d = d ++ [(k, v)].
Proof.
  induction d as [|[k' v'] d IH]; cbn [dlookup dset app]; [reflexivity|].
  destruct (xfd_eqb k k'); [discriminate|]. intros H. now rewrite IH.
Qed.

Lemma snd_dremove_nodup {A} k (d : list (xfd * A)) : NoDup (map snd d) -> NoDup (map snd (dremove k d)).
Proof. apply NoDup_map_dremove. Qed.

Lemma snd_dset_nodup {A} k (v : A) (d : list (xfd * A)) :
  NoDup (map snd d) -> ~ In v (map snd d) -> NoDup (map snd (dset k v d)).
Proof.
  induction d as [|[k' v'] d IH]; cbn [dset map snd]; intros H Hv.
  - constructor; [intros []|constructor].
  - inversion H as [|? ? Hn Hd]; subst. destruct (xfd_eqb k k'); cbn [map snd].
    + constructor; [|exact Hd]. intros Hin. apply Hv. right. exact Hin.
    + constructor.
      * intros Hin. apply in_map_iff in Hin. destruct Hin as (e & E1 & E2).
        assert (Hcase : e = (k, v) \/ In e d).
        { clear -E2. induction d as [|[k2 v2] d IH]; cbn [dset] in E2.
          - destruct E2 as [<-|[]]. auto.
          - destruct (xfd_eqb k k2).
            + destruct E2 as [<-|E2]; [auto|right; right; exact E2].
            + destruct E2 as [<-|E2]; [right; left; reflexivity|]. destruct (IH E2); [auto|right; right; assumption]. }
        destruct Hcase as [->|Hin]; [cbn in E1; subst; apply Hv; left; reflexivity|].
        apply Hn. rewrite <- E1. apply in_map. exact Hin.
      * apply IH; [exact Hd|]. intros Hin. apply Hv. right. exact Hin.
Qed.

(* a directory binding names one-to-one to objects below n: what Remove, Rename and Create of a new name keep *)
Definition dir_ok (d : list (xfd * nat)) (n : nat) : Prop :=
  NoDup (dkeys d) /\ NoDup (map snd d) /\ forall e, In e d -> (snd e < n)%nat.

Lemma dir_ok_remove d n k : dir_ok d n -> dir_ok (dremove k d) n.
Proof.
  intros (K & F & R). split; [apply dkeys_dremove, K|]. split; [apply snd_dremove_nodup, F|].
  intros e He. apply In_dremove in He. apply R, He.
Qed.

Lemma In_rename {A} (d : list (xfd * A)) a b v e :
  NoDup (dkeys d) -> In e (dset b v (dremove a d)) -> e = (b, v) \/ In e d.
Proof.
  intros K He. apply (In_dset_nodup b v _ e (proj1 (dkeys_dremove a d K))) in He.
  destruct He as [->|(He & _)]; [auto|]. right. apply In_dremove in He. apply He.
Qed.

Lemma dir_ok_rename d n a b ja : dir_ok d n -> dlookup a d = Some ja -> dir_ok (dset b ja (dremove a d)) n.
Proof.
  intros (K & F & R) Hla. split; [apply dkeys_dset, dkeys_dremove, K|]. split.
  - apply snd_dset_nodup; [apply snd_dremove_nodup, F|].
    intros Hin. apply in_map_iff in Hin. destruct Hin as (e & E1 & E2). apply In_dremove in E2. destruct E2 as (E2 & E3).
    apply E3. rewrite (ListLemmas.NoDup_map_inj snd d e (a, ja) F E2 (dlookup_In _ _ _ Hla) E1). reflexivity.
  - intros e He. destruct (In_rename d a b ja e K He) as [->|Hd]; [apply (R (a, ja)), dlookup_In, Hla|apply R, Hd].
Qed.

Lemma dir_ok_fresh d n k : dir_ok d n -> dlookup k d = None -> dir_ok (dset k n d) (S n).
Proof.
  intros (K & F & R) Hl. split; [apply dkeys_dset, K|]. rewrite dset_absent by exact Hl. split.
  - rewrite map_app. apply ListLemmas.NoDup_snoc; [exact F|].
    intros Hin. apply in_map_iff in Hin. destruct Hin as (e & E1 & E2). specialize (R e E2). cbn in E1. lia.
  - intros e He. apply in_app_or in He. destruct He as [He|[<-|[]]]; [specialize (R e He); lia|cbn; lia].
Qed.

Lemma file_after_set m j x j' :
  nth j' (set_nth (m_files m) j x) mf_default = if Nat.eqb j j' && Nat.ltb j (length (m_files m)) then x else m_file m j'.
Proof. apply nth_set_nth. Qed.

Lemma data_set_open m j b j' : mf_data (nth j' (set_open m j b) mf_default) = mf_data (m_file m j').
Proof.
  unfold set_open. rewrite file_after_set. destruct (Nat.eqb_spec j j') as [->|N]; cbn [andb]; [|reflexivity].
  destruct (Nat.ltb _ _); reflexivity.
Qed.

Lemma open_set_open m j b j' :
  mf_open (nth j' (set_open m j b) mf_default) =
  if Nat.eqb j j' && Nat.ltb j (length (m_files m)) then b else mf_open (m_file m j').
Proof.
  unfold set_open. rewrite file_after_set. destruct (Nat.eqb j j' && Nat.ltb j (length (m_files m))); reflexivity.
Qed.

Lemma open_in_range m j : mf_open (m_file m j) = true -> (j < length (m_files m))%nat.
Proof.
  intros H. destruct (Nat.lt_ge_cases j (length (m_files m))); [assumption|].
  unfold m_file in H. rewrite nth_overflow in H by assumption. discriminate.
Qed.

Lemma unclosed_app m x i j :
  (exists hd, nth_error (m_hs m ++ [x]) i = Some hd /\ h_closed hd = false /\ h_file hd = j) ->
  unclosed m i j \/ (i = length (m_hs m) /\ h_closed x = false /\ h_file x = j).
Proof.
  intros (hd & Hn & Hc & Hf). destruct (ListLemmas.nth_snoc _ _ _ _ Hn) as [[Hlt Hn']|[-> ->]].
  - left. exists hd. auto.
  - right. auto.
Qed.

Definition refines (m : mst) (o : sop) : Prop :=
  let '(m', r) := mstep true m o in minv m' /\ cstep (m_abs m) o = (m_abs m', r).

Lemma minv_same m m' :
  m_dir m' = m_dir m -> m_files m' = m_files m -> m_hs m' = m_hs m ->
  (forall f, m_meta m' = Some f -> xfd_ok f = true) -> minv m -> minv m'.
Proof.
  intros Ed Ef Eh Hm [K F R O U L M]. unfold unclosed, m_file in *.
  constructor; unfold unclosed, m_file; rewrite ?Ed, ?Ef, ?Eh; auto.
Qed.

Lemma abs_same m m' :
  m_dir m' = m_dir m -> m_files m' = m_files m -> m_hs m' = m_hs m ->
  c_dir (m_abs m') = c_dir (m_abs m) /\ c_hs (m_abs m') = c_hs (m_abs m).
Proof.
  intros Ed Ef Eh. unfold m_abs. cbn [c_dir c_hs]. rewrite Ed, Eh. split; [|reflexivity].
  apply map_ext. intros e. unfold abs_entry, m_file. now rewrite Ef, Eh.
Qed.

Lemma abs_lookup m f :
  dlookup f (c_dir (m_abs m)) = match dlookup f (m_dir m) with Some j => Some (absval m j) | None => None end.
Proof. unfold m_abs. cbn [c_dir]. rewrite (dlookup_map (abs_entry m) (abs_entry_key m)). reflexivity. Qed.

Lemma ref_lock m : minv m -> refines m SLock.
Proof.
  intros I. unfold refines. cbn [mstep cstep m_abs c_closed c_lock c_dir c_hs c_nlock c_meta].
  destruct (m_lock m); (split; [|reflexivity]); [exact I|].
  apply (minv_same m); auto. apply (mi_meta m I).
Qed.

Lemma ref_unlock m k : minv m -> refines m (SUnlock k).
Proof.
  intros I. unfold refines. cbn [mstep cstep m_abs c_closed c_lock c_dir c_hs c_nlock c_meta].
  destruct (m_lock m) as [k'|]; [destruct (Nat.eqb k k')|]; (split; [|reflexivity]); try exact I.
  apply (minv_same m); auto. apply (mi_meta m I).
Qed.

Lemma ref_setmeta m f : minv m -> refines m (SSetMeta f).
Proof.
  intros I. unfold refines. cbn [mstep cstep m_abs c_closed c_lock c_dir c_hs c_nlock c_meta].
  destruct (xfd_ok f) eqn:Hok; cbn [negb]; (split; [|reflexivity]); [|exact I].
  apply (minv_same m); auto. cbn [m_meta]. intros f' [= <-]. exact Hok.
Qed.

Lemma ref_getmeta m : minv m -> dev_mem m SGetMeta = false -> refines m SGetMeta.
Proof.
  intros I D. unfold refines. cbn [mstep cstep c_closed m_abs c_meta]. cbn [dev_mem] in D.
  destruct (m_meta m) as [f|] eqn:Hm; [|split; [exact I|reflexivity]].
  split; [exact I|]. apply orb_false_elim in D. destruct D as (D1 & D2).
  fold (m_abs m). rewrite abs_lookup.
  rewrite (mnorm_small f (mi_meta m I f Hm) D1) in D2.
  destruct (dlookup f (m_dir m)); [reflexivity|discriminate].
Qed.

Lemma ref_list m mask : minv m -> refines m (SList mask).
Proof.
  intros I. unfold refines. cbn [mstep cstep c_closed m_abs c_dir]. split; [exact I|].
  rewrite map_map. cbn [abs_entry fst]. reflexivity.
Qed.

Lemma ref_sync m h : minv m -> dev_mem m (HSync h) = false -> refines m (HSync h).
Proof.
  intros I D. unfold refines. cbn [mstep cstep m_abs c_hs]. cbn [dev_mem] in D.
  rewrite nth_error_map. destruct (nth_error (m_hs m) h) as [[j c|j s e c]|]; cbn [option_map abs_handle];
    (split; [exact I|]); try reflexivity.
  cbn [h_closed] in D. subst c. reflexivity.
Qed.

Lemma ref_readall m h : minv m -> dev_mem m (HReadAll h) = false -> refines m (HReadAll h).
Proof.
  intros I D. unfold refines. cbn [mstep cstep m_abs c_hs]. cbn [dev_mem] in D.
  rewrite nth_error_map. destruct (nth_error (m_hs m) h) as [[j c|j s e c]|]; cbn [option_map abs_handle].
  - split; [exact I|reflexivity].
  - apply orb_false_elim in D. destruct D as (-> & D2). apply negb_false_iff in D2. rewrite D2.
    split; [exact I|reflexivity].
  - split; [exact I|reflexivity].
Qed.

Lemma minv_push_handle m j x fl :
  minv m -> (j < length (m_files m))%nat -> mf_open (m_file m j) = false ->
  h_file x = j -> h_closed x = false -> mf_open fl = true ->
  minv (MS (m_dir m) (set_nth (m_files m) j fl) (m_hs m ++ [x]) (m_lock m) (m_nlock m) (m_meta m)).
Proof.
  intros [K F R O U L M] Hj Hno Hxf Hxc Hfl.
  assert (Hfile : forall j', mf_open (nth j' (set_nth (m_files m) j fl) mf_default) =
                             if Nat.eqb j j' then true else mf_open (m_file m j')).
  { intros j'. rewrite file_after_set. apply Nat.ltb_lt in Hj. rewrite Hj, andb_true_r.
    destruct (Nat.eqb j j'); [exact Hfl|reflexivity]. }
  assert (Hold : forall i j', unclosed m i j' -> j' <> j).
  { intros i j' Hu ->. rewrite (O _ _ Hu) in Hno. discriminate. }
  constructor; cbn [m_dir m_files m_hs m_meta]; auto.
  - intros e He. rewrite set_nth_length. auto.
  - intros i j' Hu. unfold m_file. cbn [m_files]. rewrite Hfile.
    destruct (unclosed_app m x i j' Hu) as [Hu'|(-> & _ & <-)].
    + destruct (Nat.eqb j j'); [reflexivity|]. apply (O _ _ Hu').
    + rewrite Hxf, Nat.eqb_refl. reflexivity.
  - intros i i' j' Hu Hu'.
    destruct (unclosed_app m x i j' Hu) as [H1|(-> & _ & E1)];
      destruct (unclosed_app m x i' j' Hu') as [H2|(-> & _ & E2)].
    + exact (U _ _ _ H1 H2).
    + exfalso. apply (Hold _ _ H1). congruence.
    + exfalso. apply (Hold _ _ H2). congruence.
    + reflexivity.
  - intros i j' Hn. destruct (ListLemmas.nth_snoc _ _ _ _ Hn) as [[Hlt Hn']|[-> Ex]].
    + assert (Hne : j' <> j) by (apply (Hold i); exists (MW j' false); auto).
      destruct x as [jx cx|jx sx ex cx].
      * rewrite lw_app_writer. cbn [h_file] in Hxf. subst jx.
        destruct (Nat.eqb_spec j j'); [congruence|]. apply L. exact Hn'.
      * rewrite lw_app_reader. apply L. exact Hn'.
    + subst x. rewrite lw_app_writer, Nat.eqb_refl. reflexivity.
Qed.

Lemma ref_open m f : minv m -> dev_mem m (SOpen f) = false -> refines m (SOpen f).
Proof.
  intros I D. unfold refines. cbn [mstep dev_mem] in *. unfold cstep.
  change (c_closed (m_abs m)) with false. change (c_hs (m_abs m)) with (map abs_handle (m_hs m)).
  destruct (xfd_ok f) eqn:Hok; cbn [negb]; [|split; [exact I|reflexivity]].
  apply orb_false_elim in D. destruct D as (D1 & D2). cbn [andb] in D2.
  rewrite (mnorm_small f Hok D1) in *. unfold name_open in D2. rewrite (mnorm_small f Hok D1) in D2.
  rewrite abs_lookup.
  destruct (dlookup f (m_dir m)) as [j|] eqn:Hl; [|split; [exact I|reflexivity]].
  rewrite D2. cbn [absval].
  assert (Hj : (j < length (m_files m))%nat) by (apply (mi_range m I (f, j)); apply dlookup_In; exact Hl).
  split.
  - unfold set_open. apply minv_push_handle; auto.
  - rewrite map_length. f_equal. unfold m_abs, with_hs. cbn [c_dir c_hs c_lock c_nlock c_meta c_closed m_dir m_hs m_lock m_nlock m_meta].
    rewrite map_app. cbn [map abs_handle]. f_equal.
    symmetry. apply abs_dir_ext. intros e He. unfold absval, m_file. cbn [m_files m_hs].
    rewrite data_set_open, lw_app_reader. reflexivity.
Qed.

Lemma dset_same {A} k (v : A) d : dlookup k d = Some v -> dset k v d = d.
Proof.
  induction d as [|[k' v'] d IH]; cbn [dlookup dset]; [discriminate|].
  destruct (xfd_eqb_spec k k') as [->|N]; [intros [= ->]; reflexivity|]. intros H. now rewrite IH.
Qed.

Lemma dset_map_ext {A B} (g g' : xfd * A -> xfd * B) k v (d : list (xfd * A)) :
  (forall e, fst (g e) = fst e) -> (forall e, fst (g' e) = fst e) ->
  NoDup (dkeys d) -> (forall e, In e d -> fst e <> k -> g e = g' e) ->
  dset k v (map g d) = dset k v (map g' d).
Proof.
  intros Gk Gk'. unfold dkeys. induction d as [|[k' v'] d IH]; cbn [map dset fst]; intros Hnd H; [reflexivity|].
  inversion Hnd as [|? ? Hn Hd]; subst.
  pose proof (Gk (k', v')) as E1. pose proof (Gk' (k', v')) as E2.
  destruct (g (k', v')) as [k1 w1] eqn:G1. destruct (g' (k', v')) as [k2 w2] eqn:G2. cbn [fst] in E1, E2. subst k1 k2.
  destruct (xfd_eqb_spec k k') as [->|N].
  - f_equal. apply map_ext_in. intros e He. apply H; [right; exact He|].
    intros E. apply Hn. apply in_map_iff. exists e. auto.
  - assert (E : (k', w1) = (k', w2)) by (rewrite <- G1, <- G2; apply H; [left; reflexivity|cbn; congruence]).
    injection E as ->. f_equal. apply IH; [exact Hd|]. intros e He. apply H. right. exact He.
Qed.

(* re-binding a name to its own object, whose abstract value becomes v while every other object keeps its own *)
Lemma map_dset_existing {A B} (g g' : xfd * A -> xfd * B) f j v (d : list (xfd * A)) :
  (forall e, fst (g e) = fst e) -> (forall e, fst (g' e) = fst e) ->
  NoDup (dkeys d) -> NoDup (map snd d) -> dlookup f d = Some j ->
  snd (g' (f, j)) = v -> (forall e, In e d -> snd e <> j -> g e = g' e) ->
  dset f v (map g d) = map g' d.
Proof.
  intros Gk Gk' K F Hl Ev Hag. rewrite <- (dset_same f j d Hl) at 2. rewrite <- (dset_map g' Gk'), Ev.
  apply dset_map_ext; auto. intros e He Hne. apply Hag; [exact He|]. intros E. apply Hne.
  rewrite (ListLemmas.NoDup_map_inj snd d e (f, j) F He (dlookup_In _ _ _ Hl) E). reflexivity.
Qed.

Lemma minv_create_fresh m k :
  minv m -> dlookup k (m_dir m) = None ->
  minv (MS (dset k (length (m_files m)) (m_dir m)) (m_files m ++ [MF [] true 0])
           (m_hs m ++ [MW (length (m_files m)) false]) (m_lock m) (m_nlock m) (m_meta m)).
Proof.
  intros [K F R O U L M] Hl. set (j := length (m_files m)).
  assert (Hold : forall i j', unclosed m i j' -> (j' < j)%nat) by (intros i j' Hu; apply open_in_range, (O _ _ Hu)).
  assert (Hfile : forall j', (j' < j)%nat -> nth j' (m_files m ++ [MF [] true 0]) mf_default = m_file m j')
    by (intros j' Hj; apply app_nth1; exact Hj).
  destruct (dir_ok_fresh _ _ k (conj K (conj F R)) Hl) as (K' & F' & R').
  constructor; cbn [m_dir m_files m_hs m_meta]; auto.
  - intros e He. rewrite app_length, Nat.add_1_r. apply R', He.
  - intros i j' Hu. unfold m_file. cbn [m_files].
    destruct (unclosed_app m _ i j' Hu) as [Hu'|(-> & _ & <-)].
    + rewrite Hfile by (apply (Hold i); exact Hu'). apply (O _ _ Hu').
    + cbn [h_file]. rewrite app_nth2 by lia. fold j. rewrite Nat.sub_diag. reflexivity.
  - intros i i' j' Hu Hu'.
    destruct (unclosed_app m _ i j' Hu) as [H1|(-> & _ & E1)];
      destruct (unclosed_app m _ i' j' Hu') as [H2|(-> & _ & E2)].
    + exact (U _ _ _ H1 H2).
    + exfalso. specialize (Hold _ _ H1). cbn [h_file] in E2. lia.
    + exfalso. specialize (Hold _ _ H2). cbn [h_file] in E1. lia.
    + reflexivity.
  - intros i j' Hn. destruct (ListLemmas.nth_snoc _ _ _ _ Hn) as [[Hlt Hn']|[-> Ex]].
    + assert (Hlt' : (j' < j)%nat) by (apply (Hold i); exists (MW j' false); auto).
      rewrite lw_app_writer. destruct (Nat.eqb_spec j j'); [lia|]. apply L. exact Hn'.
    + injection Ex as ->. rewrite lw_app_writer, Nat.eqb_refl. reflexivity.
Qed.

Lemma ref_create m f : minv m -> dev_mem m (SCreate f) = false -> refines m (SCreate f).
Proof.
  intros I D. unfold refines. cbn [mstep dev_mem] in *. unfold cstep.
  change (c_closed (m_abs m)) with false. change (c_hs (m_abs m)) with (map abs_handle (m_hs m)).
  destruct (xfd_ok f) eqn:Hok; cbn [negb]; [|split; [exact I|reflexivity]].
  apply orb_false_elim in D. destruct D as (D1 & D2). cbn [andb] in D2.
  unfold name_open in D2. rewrite (mnorm_small f Hok D1) in *.
  destruct (dlookup f (m_dir m)) as [j|] eqn:Hl.
  - rewrite D2.
    assert (Hj : (j < length (m_files m))%nat) by (apply (mi_range m I (f, j)); apply dlookup_In; exact Hl).
    split; [apply minv_push_handle; auto|].
    rewrite map_length. f_equal.
    unfold m_abs. cbn [c_dir c_hs c_lock c_nlock c_meta c_closed m_dir m_hs m_lock m_nlock m_meta].
    rewrite map_app. cbn [map abs_handle]. f_equal.
    set (m' := MS (m_dir m) (set_nth (m_files m) j (MF [] true (mf_epoch (m_file m j) + 1)))
                  (m_hs m ++ [MW j false]) (m_lock m) (m_nlock m) (m_meta m)).
    apply Nat.ltb_lt in Hj.
    apply (map_dset_existing (abs_entry m) (abs_entry m') f j); auto using abs_entry_key, (mi_keys m I), (mi_files m I).
    + unfold abs_entry, m', m_file. cbn [snd m_files m_hs]. rewrite file_after_set, Nat.eqb_refl, Hj.
      cbn [andb mf_data]. rewrite lw_app_writer, Nat.eqb_refl. reflexivity.
    + intros e He Hsj. unfold abs_entry. f_equal. unfold m', m_file. cbn [m_files m_hs]. rewrite file_after_set.
      destruct (Nat.eqb_spec j (snd e)); [congruence|]. cbn [andb]. rewrite lw_app_writer.
      destruct (Nat.eqb_spec j (snd e)); [congruence|]. reflexivity.
  - split; [apply minv_create_fresh; auto|].
    rewrite map_length. f_equal.
    unfold m_abs. cbn [c_dir c_hs c_lock c_nlock c_meta c_closed m_dir m_hs m_lock m_nlock m_meta].
    rewrite map_app. cbn [map abs_handle]. f_equal.
    set (j := length (m_files m)).
    set (m' := MS (dset f j (m_dir m)) (m_files m ++ [MF [] true 0]) (m_hs m ++ [MW j false]) (m_lock m) (m_nlock m) (m_meta m)).
    assert (Ej : absval m' j = ([], Some (length (m_hs m)))).
    { unfold absval, m', m_file. cbn [m_files m_hs]. rewrite app_nth2 by (subst j; lia). subst j. rewrite Nat.sub_diag.
      cbn [nth mf_data]. rewrite lw_app_writer, Nat.eqb_refl. reflexivity. }
    rewrite <- (dset_map (abs_entry m') (abs_entry_key m')). cbn [abs_entry snd fst]. fold (absval m' j). rewrite Ej.
    f_equal. symmetry. apply abs_dir_ext. intros e He. pose proof (mi_range m I e He) as Hr.
    unfold absval, m', m_file. cbn [m_files m_hs]. rewrite app_nth1 by exact Hr. rewrite lw_app_writer.
    destruct (Nat.eqb_spec j (snd e)); [subst j; lia|]. reflexivity.
Qed.

Lemma minv_dir_ok m : minv m -> dir_ok (m_dir m) (length (m_files m)).
Proof. intros [K F R _ _ _ _]. exact (conj K (conj F R)). Qed.

Lemma minv_dir m d :
  minv m -> dir_ok d (length (m_files m)) -> minv (MS d (m_files m) (m_hs m) (m_lock m) (m_nlock m) (m_meta m)).
Proof. intros [K F R O U L M] (K' & F' & R'). constructor; cbn [m_dir m_files m_hs m_meta]; auto. Qed.

Lemma abs_dir_only m d :
  m_abs (MS d (m_files m) (m_hs m) (m_lock m) (m_nlock m) (m_meta m)) = with_dir (m_abs m) (map (abs_entry m) d).
Proof. reflexivity. Qed.

Lemma ref_remove m f : minv m -> dev_mem m (SRemove f) = false -> refines m (SRemove f).
Proof.
  intros I D. unfold refines. cbn [mstep dev_mem] in *. unfold cstep.
  change (c_closed (m_abs m)) with false.
  destruct (xfd_ok f) eqn:Hok; cbn [negb]; [|split; [exact I|reflexivity]].
  rewrite (mnorm_small f Hok D) in *. rewrite abs_lookup.
  destruct (dlookup f (m_dir m)) as [j|] eqn:Hl; [|split; [exact I|reflexivity]].
  split.
  - apply minv_dir; [exact I|apply dir_ok_remove, minv_dir_ok, I].
  - rewrite abs_dir_only. f_equal. unfold with_dir. f_equal.
    change (c_dir (m_abs m)) with (map (abs_entry m) (m_dir m)).
    apply (dremove_map (abs_entry m) (abs_entry_key m)).
Qed.

Lemma ref_rename m a b : minv m -> dev_mem m (SRename a b) = false -> refines m (SRename a b).
Proof.
  intros I D. unfold refines. cbn [mstep dev_mem] in *. unfold cstep.
  change (c_closed (m_abs m)) with false.
  destruct (xfd_ok a) eqn:Ha; cbn [negb orb]; [|split; [exact I|reflexivity]].
  destruct (xfd_ok b) eqn:Hb; cbn [negb orb]; [|split; [exact I|reflexivity]].
  destruct (xfd_eqb_spec a b) as [->|Nab]; [split; [exact I|reflexivity]|].
  apply orb_false_elim in D. destruct D as (D & D3). apply orb_false_elim in D. destruct D as (D1 & D2).
  cbn [andb negb] in D3. rewrite (mnorm_small a Ha D1), (mnorm_small b Hb D2) in *.
  rewrite abs_lookup. unfold name_open in D3. rewrite (mnorm_small a Ha D1), (mnorm_small b Hb D2) in D3.
  destruct (dlookup a (m_dir m)) as [ja|] eqn:Hla; [|split; [exact I|reflexivity]].
  apply orb_false_elim in D3. destruct D3 as (Oa & Ob).
  replace (match dlookup b (m_dir m) with Some jb => mf_open (m_file m jb) | None => false end) with false
    by (symmetry; exact Ob).
  rewrite Oa. cbn [orb].
  split.
  - apply minv_dir; [exact I|apply dir_ok_rename; [apply minv_dir_ok, I|exact Hla]].
  - rewrite abs_dir_only. f_equal. unfold with_dir. f_equal.
    change (c_dir (m_abs m)) with (map (abs_entry m) (m_dir m)).
    rewrite (dremove_map (abs_entry m) (abs_entry_key m)).
    apply (dset_map (abs_entry m) (abs_entry_key m) b ja).
Qed.

Lemma ref_write m h d : minv m -> dev_mem m (HWrite h d) = false -> refines m (HWrite h d).
Proof.
  intros I D. unfold refines. cbn [mstep dev_mem] in *. unfold cstep.
  change (c_hs (m_abs m)) with (map abs_handle (m_hs m)). rewrite nth_error_map.
  destruct (nth_error (m_hs m) h) as [[j c|j s e c]|] eqn:Hn; cbn [option_map abs_handle h_closed] in *;
    [|subst c; split; [exact I|reflexivity]|split; [exact I|reflexivity]].
  subst c. destruct I as [K F R O U L M].
  set (fl := MF (mf_data (m_file m j) ++ d) (mf_open (m_file m j)) (mf_epoch (m_file m j))).
  assert (Hopen : forall j', mf_open (nth j' (set_nth (m_files m) j fl) mf_default) = mf_open (m_file m j')).
  { intros j'. rewrite file_after_set. destruct (Nat.eqb_spec j j') as [->|N]; cbn [andb]; [|reflexivity].
    destruct (Nat.ltb _ _); reflexivity. }
  split.
  - constructor; unfold m_with_files, unclosed, m_file in *; cbn [m_dir m_files m_hs m_meta]; auto.
    + intros e He. rewrite set_nth_length. auto.
    + intros i j' Hu. rewrite Hopen. apply (O _ _ Hu).
  - f_equal. unfold m_abs, m_with_files, with_dir.
    cbn [c_dir c_hs c_lock c_nlock c_meta c_closed m_dir m_hs m_lock m_nlock m_meta m_files]. f_equal.
    rewrite map_map. apply map_ext_in. intros [k j'] He. unfold abs_entry, cappend. cbn [fst snd].
    cbn [m_hs]. unfold m_file at 4. cbn [m_files]. rewrite file_after_set.
    specialize (R _ He). cbn [snd] in R.
    destruct (Nat.eqb_spec j j') as [<-|N].
    + apply Nat.ltb_lt in R. rewrite R. cbn [andb]. rewrite (L _ _ Hn), Nat.eqb_refl. reflexivity.
    + cbn [andb]. destruct (last_writer (m_hs m) j') as [h'|] eqn:Hl; [|reflexivity].
      destruct (Nat.eqb_spec h' h) as [->|]; [|reflexivity].
      apply lw_sound in Hl. destruct Hl as (c & Hl). rewrite Hn in Hl. congruence.
Qed.

(* Close of a handle: the handle is replaced by a closed one on the same object, whose open flag is cleared *)
Lemma minv_close_handle m h hd hd' :
  minv m -> nth_error (m_hs m) h = Some hd -> h_closed hd = false ->
  mw_file hd' = mw_file hd -> h_closed hd' = true ->
  let m' := MS (m_dir m) (set_open m (h_file hd) false) (set_nth (m_hs m) h hd') (m_lock m) (m_nlock m) (m_meta m) in
  minv m' /\ map (abs_entry m') (m_dir m) = map (abs_entry m) (m_dir m).
Proof.
  intros [K F R O U L M] Hn Hc Hw Hc' m'. set (j := h_file hd) in *.
  assert (Hu : unclosed m h j) by (exists hd; auto).
  assert (Hset : forall y, nth_error (m_hs m) h = Some y -> mw_file y = mw_file hd').
  { intros y Hy. rewrite Hn in Hy. injection Hy as <-. symmetry. exact Hw. }
  (* an unclosed handle of m' is an unclosed handle of m other than h *)
  assert (Hold : forall i j', unclosed m' i j' -> i <> h /\ unclosed m i j').
  { intros i j' (x & Hi & Hx & Hf). unfold m' in Hi. cbn [m_hs] in Hi. rewrite nth_error_set_nth in Hi.
    destruct (Nat.eqb_spec h i) as [->|Nh]; [destruct (Nat.ltb _ _); [injection Hi as <-; congruence|discriminate]|].
    split; [congruence|exists x; auto]. }
  subst m'. split.
  - constructor; cbn [m_dir m_files m_hs m_meta]; auto.
    + intros e0 He. unfold set_open. rewrite set_nth_length. auto.
    + intros i j' Hi. destruct (Hold _ _ Hi) as (Nh & Hu'). unfold m_file. cbn [m_files]. rewrite open_set_open.
      destruct (Nat.eqb_spec j j') as [<-|Nj]; [destruct (Nh (U _ _ _ Hu' Hu))|]. apply (O _ _ Hu').
    + intros i i' j' Hi Hi'. exact (U i i' j' (proj2 (Hold _ _ Hi)) (proj2 (Hold _ _ Hi'))).
    + intros i j' Hi. rewrite nth_error_set_nth in Hi.
      destruct (Nat.eqb_spec h i) as [->|Nh]; [destruct (Nat.ltb _ _); [injection Hi as E; rewrite E in Hc'|]; discriminate|].
      rewrite lw_set by exact Hset. apply L. exact Hi.
  - apply abs_dir_ext. intros e0 He. unfold absval, m_file. cbn [m_files m_hs].
    rewrite data_set_open, lw_set by exact Hset. reflexivity.
Qed.

Lemma ref_hclose m h : minv m -> refines m (HClose h).
Proof.
  intros I. unfold refines. cbn [mstep]. unfold cstep.
  change (c_hs (m_abs m)) with (map abs_handle (m_hs m)). rewrite nth_error_map.
  destruct (nth_error (m_hs m) h) as [hd|] eqn:Hn; cbn [option_map]; [|split; [exact I|reflexivity]].
  destruct hd as [j [|]|j s e [|]]; cbn [abs_handle]; try (split; [exact I|reflexivity]).
  - destruct (minv_close_handle m h _ (MW j true) I Hn eq_refl eq_refl eq_refl) as (I' & E).
    split; [exact I'|]. unfold m_abs, with_hs. cbn [c_dir c_hs m_dir m_hs m_lock m_nlock m_meta h_file] in *.
    rewrite E, map_set_nth. reflexivity.
  - destruct (minv_close_handle m h _ (MR j s e true) I Hn eq_refl eq_refl eq_refl) as (I' & E).
    split; [exact I'|]. unfold m_abs, with_hs. cbn [c_dir c_hs m_dir m_hs m_lock m_nlock m_meta h_file] in *.
    rewrite E, map_set_nth. reflexivity.
Qed.

Theorem mem_step_refines m o : minv m -> dev_mem m o = false -> refines m o.
Proof.
  intros I D. destruct o.
  - apply ref_lock; auto.
  - apply ref_unlock; auto.
  - apply ref_setmeta; auto.
  - apply ref_getmeta; auto.
  - apply ref_list; auto.
  - apply ref_open; auto.
  - apply ref_create; auto.
  - apply ref_remove; auto.
  - apply ref_rename; auto.
  - discriminate D.
  - apply ref_write; auto.
  - apply ref_sync; auto.
  - apply ref_readall; auto.
  - apply ref_hclose; auto.
Qed.

Theorem mem_run_refines : forall ops m,
  minv m -> mem_dev_free m ops = true ->
  let '(m', rs) := mrun true m ops in minv m' /\ crun (m_abs m) ops = (m_abs m', rs).
Proof.
  induction ops as [|o ops IH]; intros m I D; cbn [mrun crun].
  - auto.
  - cbn [mem_dev_free] in D. apply andb_prop in D. destruct D as (D1 & D2). apply negb_true_iff in D1.
    pose proof (mem_step_refines m o I D1) as R. unfold refines in R.
    destruct (mstep true m o) as [m1 r] eqn:Hs. cbn [fst] in D2. destruct R as (I1 & R1).
    specialize (IH m1 I1 D2). destruct (mrun true m1 ops) as [m2 rs]. destruct IH as (I2 & R2).
    split; [exact I2|]. rewrite R1, R2. reflexivity.
Qed.

Corollary memstorage_contract_from_empty ops :
  mem_dev_free m_empty ops = true -> snd (crun c_empty ops) = snd (mrun true m_empty ops).
Proof.
  intros D. pose proof (mem_run_refines ops m_empty minv_empty D) as R.
  destruct (mrun true m_empty ops) as [m' rs]. destruct R as (_ & R).
  change (m_abs m_empty) with c_empty in R. rewrite R. reflexivity.
Qed.

Theorem vstor_step_refines c o :
  c_closed c = false -> dev_vstor c o = false ->
  vstep c o = cstep c o /\ c_closed (fst (vstep c o)) = false.
Proof.
  intros Hc D.
  assert (Hstep : forall o', (match o' with SClose => False | _ => True end) -> c_closed (fst (cstep c o')) = false).
  { intros o' Ho. destruct o'; try contradiction; cbn [cstep]; rewrite ?Hc;
      repeat match goal with
             | |- context [match ?x with _ => _ end] => destruct x
             end; cbn [fst c_closed with_hs with_dir]; auto. }
  destruct o; cbn [vstep dev_vstor] in *; try discriminate;
    try (split; [reflexivity|apply Hstep; exact Logic.I]).
  cbn [cstep]. rewrite Hc. destruct (c_meta c) as [f|]; [|auto].
  destruct (dlookup f (c_dir c)); [auto|discriminate].
Qed.

Fixpoint vstor_dev_free (c : cst) (ops : list sop) : bool :=
  match ops with
  | [] => true
  | o :: ops' => negb (dev_vstor c o) && vstor_dev_free (fst (vstep c o)) ops'
  end.

Theorem vstor_run_refines : forall ops c,
  c_closed c = false -> vstor_dev_free c ops = true -> vrun c ops = crun c ops.
Proof.
  induction ops as [|o ops IH]; intros c Hc D; cbn [vrun crun]; [reflexivity|].
  cbn [vstor_dev_free] in D. apply andb_prop in D. destruct D as (D1 & D2). apply negb_true_iff in D1.
  destruct (vstor_step_refines c o Hc D1) as (E & Hc'). rewrite <- E.
  destruct (vstep c o) as [c1 r]. cbn [fst] in *. rewrite (IH c1 Hc' D2). reflexivity.
Qed.
