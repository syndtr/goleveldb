(* Store/FileStorageSeqProofs.v — the sequential file storage (Store/FileStorageSeq.v) refines the storage contract on
   every call that is not in [dev_fs] (SetMeta / GetMeta are outside this theorem); the invariant of such runs. *)
From Coq Require Import List NArith ZArith Bool Lia Arith PeanoNat.
From GL Require Import Base.Bytes Base.BytesProofs Base.NIdx Base.NIdxProofs Base.UBufferProofs
  Store.FileStorage Store.FileStorageProofs Store.StorContract Store.MemStorage Store.MemStorageProofs Store.FileStorageSeq.
From GL Require Mem.ListLemmas.
Import ListNotations.

Definition qw_file (h : qhandle) : option nat := match h with QW i _ _ => Some i | QR _ _ _ => None end.

Lemma last_qwriter_eq hs j : last_qwriter hs j = lastw qw_file hs j.
Proof.
  unfold last_qwriter, lastw. generalize 0%nat (@None nat).
  induction hs as [|h hs IH]; intros i acc; [reflexivity|]. destruct h; apply IH.
Qed.

Lemma lqw_app_writer hs j p c j' :
  last_qwriter (hs ++ [QW j p c]) j' = if Nat.eqb j j' then Some (length hs) else last_qwriter hs j'.
Proof. rewrite !last_qwriter_eq. exact (lastw_app qw_file hs (QW j p c) j'). Qed.

Lemma lqw_app_reader hs j s c j' : last_qwriter (hs ++ [QR j s c]) j' = last_qwriter hs j'.
Proof. rewrite !last_qwriter_eq. exact (lastw_app qw_file hs (QR j s c) j'). Qed.

Lemma lqw_sound hs j k : last_qwriter hs j = Some k -> exists p c, nth_error hs k = Some (QW j p c).
Proof.
  rewrite last_qwriter_eq. intros E. destruct (lastw_sound _ _ _ _ E) as ([j' p c|] & Hn & [= ->]). eauto.
Qed.

Lemma lqw_set hs i x j :
  (forall y, nth_error hs i = Some y -> qw_file y = qw_file x) -> last_qwriter (set_nth hs i x) j = last_qwriter hs j.
Proof. rewrite !last_qwriter_eq. apply lastw_set. Qed.

Lemma write_at_end c d : write_at c (lenN c) d = c ++ d.
Proof.
  unfold write_at. rewrite N.ltb_irrefl.
  rewrite takeN_all by lia. rewrite dropN_all by lia. now rewrite app_nil_r.
Qed.

Lemma set_nth_same {A} (l : list A) : forall i x, nth_error l i = Some x -> set_nth l i x = l.
Proof.
  induction l as [|y l IH]; intros [|i] x; cbn [nth_error set_nth]; try discriminate.
  - intros [= ->]. reflexivity.
  - intros H. now rewrite IH.
Qed.

Lemma ino_after_set s i x j :
  nth j (set_nth (q_inos s) i x) [] = if Nat.eqb i j && Nat.ltb i (length (q_inos s)) then x else q_ino s j.
Proof. apply nth_set_nth. Qed.

Lemma ino_busy_false s i h hd :
  ino_busy s i = false -> nth_error (q_hs s) h = Some hd -> qh_closed hd = false -> qh_ino hd <> i.
Proof.
  unfold ino_busy. intros Hb Hn Hc E.
  assert (Ht : existsb (fun h0 => negb (qh_closed h0) && Nat.eqb (qh_ino h0) i) (q_hs s) = true).
  { apply existsb_exists. exists hd. split; [eapply nth_error_In; eauto|]. rewrite Hc, E, Nat.eqb_refl. reflexivity. }
  congruence.
Qed.

Definition key_ok (k : xfd) : Prop := xfd_ok k = true /\ int64_ok (x_num k) = true.

Record qinv (s : qst) : Prop := QI {
  qi_keys : NoDup (dkeys (q_dir s));
  qi_inos : NoDup (map snd (q_dir s));
  qi_range : forall e, In e (q_dir s) -> (snd e < length (q_inos s))%nat;
  qi_writer : forall h i pos, nth_error (q_hs s) h = Some (QW i pos false) ->
                              pos = lenN (q_ino s i) /\ last_qwriter (q_hs s) i = Some h;
  qi_hrange : forall h hd, nth_error (q_hs s) h = Some hd -> (qh_ino hd < length (q_inos s))%nat;
  qi_keyok : forall e, In e (q_dir s) -> key_ok (fst e);
  qi_cur : forall n, In n (map fst (q_cur s)) -> is_cur_name n = true }.

Lemma qinv_empty : qinv q_empty.
Proof.
  constructor; cbn [q_empty q_dir q_inos q_hs q_cur dkeys map].
  - constructor.
  - constructor.
  - intros e [].
  - intros h0 i0 p0 H. destruct h0; discriminate.
  - intros h0 hd H. destruct h0; discriminate.
  - intros e [].
  - intros n [].
Qed.

(* descriptors a Go caller can pass: the number is an int64 *)
Definition op_int64 (o : sop) : Prop :=
  match o with
  | SSetMeta f | SOpen f | SCreate f | SRemove f => int64_ok (x_num f) = true
  | SRename a b => int64_ok (x_num a) = true /\ int64_ok (x_num b) = true
  | _ => True
  end.

Definition absqval (s : qst) (j : nat) : cfile := (q_ino s j, last_qwriter (q_hs s) j).

Lemma abs_qentry_key s e : fst (abs_qentry s e) = fst e.
Proof. reflexivity. Qed.

Lemma absq_dir_ext s s' d :
  (forall e, In e d -> absqval s' (snd e) = absqval s (snd e)) -> map (abs_qentry s') d = map (abs_qentry s) d.
Proof.
  intros H. apply map_ext_in. intros e He. unfold abs_qentry. specialize (H e He). unfold absqval in H.
  injection H as -> ->. reflexivity.
Qed.

Lemma absq_lookup s f :
  dlookup f (c_dir (q_abs s)) = match dlookup f (q_dir s) with Some j => Some (absqval s j) | None => None end.
Proof. unfold q_abs. cbn [c_dir]. rewrite (dlookup_map (abs_qentry s) (abs_qentry_key s)). reflexivity. Qed.

Definition qrefines (s : qst) (o : sop) : Prop :=
  let '(s', r) := qstep s o in qinv s' /\ cstep (q_abs s) o = (q_abs s', r).

(* the guards agree with the contract's order of tests *)
Lemma qguard_open s ok : qguard s (MOpen ok) = if negb ok then Some EInvalid else if q_closed s then Some EClosed else None.
Proof. unfold qguard, guard. cbn. destruct ok, (q_closed s); reflexivity. Qed.
Lemma qguard_create s ok : qguard s (MCreate ok) = if negb ok then Some EInvalid else if q_closed s then Some EClosed else None.
Proof. unfold qguard, guard. cbn. destruct ok, (q_closed s); reflexivity. Qed.
Lemma qguard_remove s ok : qguard s (MRemove ok) = if negb ok then Some EInvalid else if q_closed s then Some EClosed else None.
Proof. unfold qguard, guard. cbn. destruct ok, (q_closed s); reflexivity. Qed.
Lemma qguard_rename s ok same :
  qguard s (MRename ok same) = if negb ok then Some EInvalid else if same then None else if q_closed s then Some EClosed else None.
Proof. unfold qguard, guard. cbn. destruct ok, same, (q_closed s); reflexivity. Qed.
Lemma qguard_list s : qguard s MList = if q_closed s then Some EClosed else None.
Proof. unfold qguard, guard. cbn. destruct (q_closed s); reflexivity. Qed.

Lemma qinv_same s s' :
  q_dir s' = q_dir s -> q_inos s' = q_inos s -> q_hs s' = q_hs s -> q_cur s' = q_cur s -> qinv s -> qinv s'.
Proof.
  intros Ed Ei Eh Ec [K F R W HR O C]. unfold q_ino in *.
  constructor; unfold q_ino; rewrite ?Ed, ?Ei, ?Eh, ?Ec; auto.
Qed.

Lemma qref_lock s : qinv s -> qrefines s SLock.
Proof.
  intros I. unfold qrefines. cbn [qstep cstep q_abs c_closed c_lock c_dir c_hs c_nlock c_meta].
  destruct (q_closed s); [split; [exact I|reflexivity]|].
  destruct (q_lock s); (split; [|reflexivity]); [exact I|]. apply (qinv_same s); auto.
Qed.

Lemma qref_unlock s k : qinv s -> qrefines s (SUnlock k).
Proof.
  intros I. unfold qrefines. cbn [qstep cstep q_abs c_closed c_lock c_dir c_hs c_nlock c_meta].
  destruct (q_lock s) as [k'|]; [destruct (Nat.eqb k k')|]; (split; [|reflexivity]); try exact I.
  apply (qinv_same s); auto.
Qed.

Lemma qref_close s : qinv s -> qrefines s SClose.
Proof.
  intros I. unfold qrefines. cbn [qstep cstep q_abs c_closed c_lock c_dir c_hs c_nlock c_meta].
  destruct (q_closed s); (split; [|reflexivity]); [exact I|]. apply (qinv_same s); auto.
Qed.

Lemma qref_sync s h : qinv s -> dev_fs s (HSync h) = false -> qrefines s (HSync h).
Proof.
  intros I D. unfold qrefines. cbn [qstep cstep q_abs c_hs]. cbn [dev_fs] in D.
  rewrite nth_error_map. destruct (nth_error (q_hs s) h) as [[j p c|j sn c]|]; cbn [option_map abs_qhandle];
    try (split; [exact I|reflexivity]).
  cbn [qh_closed] in D. subst c. split; [exact I|reflexivity].
Qed.

Lemma qref_readall s h : qinv s -> dev_fs s (HReadAll h) = false -> qrefines s (HReadAll h).
Proof.
  intros I D. unfold qrefines. cbn [qstep cstep q_abs c_hs]. cbn [dev_fs] in D.
  rewrite nth_error_map. destruct (nth_error (q_hs s) h) as [[j p c|j sn c]|]; cbn [option_map abs_qhandle].
  - destruct c; split; try exact I; reflexivity.
  - apply orb_false_elim in D. destruct D as (-> & D2). apply negb_false_iff in D2. apply beq_eq in D2. subst sn.
    split; [exact I|reflexivity].
  - split; [exact I|reflexivity].
Qed.

Lemma qinv_push s inos' x :
  qinv s -> length inos' = length (q_inos s) ->
  (forall h i pos, nth_error (q_hs s) h = Some (QW i pos false) -> nth i inos' [] = q_ino s i /\ (forall p c, x = QW i p c -> False)) ->
  (forall i p, x = QW i p false -> p = lenN (nth i inos' [])) ->
  (qh_ino x < length (q_inos s))%nat ->
  qinv (q_with s (q_dir s) (q_other s) inos' (q_hs s ++ [x])).
Proof.
  intros [K F R W HR O C] Hlen Hold Hnew Hxr. unfold q_with. unfold q_ino, bytes in *.
  constructor; cbn [q_dir q_inos q_hs q_cur]; auto.
  - intros e He. specialize (R e He). unfold bytes in *. lia.
  - intros h i pos Hn. cbn [q_inos].
    destruct (ListLemmas.nth_snoc _ _ _ _ Hn) as [[Hlt Hn']|[-> <-]].
    + destruct (W _ _ _ Hn') as (W1 & W2).
      destruct (Hold _ _ _ Hn') as (E & Hx). unfold q_ino. cbn [q_inos]. unfold bytes. rewrite E. split; [exact W1|].
      destruct x as [jx px cx|jx sx cx].
      * rewrite lqw_app_writer. destruct (Nat.eqb_spec jx i) as [->|]; [exfalso; eapply Hx; reflexivity|exact W2].
      * rewrite lqw_app_reader. exact W2.
    + unfold q_ino. cbn [q_inos]. unfold bytes. split; [apply Hnew; reflexivity|]. rewrite lqw_app_writer, Nat.eqb_refl. reflexivity.
  - intros h hd Hn. destruct (ListLemmas.nth_snoc _ _ _ _ Hn) as [[Hlt Hn']|[-> ->]].
    + specialize (HR _ _ Hn'). unfold bytes in *. lia.
    + unfold bytes in *. lia.
Qed.

Lemma qref_open s f : qinv s -> dev_fs s (SOpen f) = false -> qrefines s (SOpen f).
Proof.
  intros I D. unfold qrefines. cbn [qstep dev_fs] in *. rewrite qguard_open. unfold cstep.
  change (c_closed (q_abs s)) with (q_closed s). change (c_hs (q_abs s)) with (map abs_qhandle (q_hs s)).
  destruct (xfd_ok f) eqn:Hok; cbn [negb]; [|split; [exact I|reflexivity]].
  destruct (q_closed s) eqn:Hc; [split; [exact I|reflexivity]|]. cbn [andb negb] in D.
  rewrite absq_lookup.
  destruct (dlookup f (q_dir s)) as [i|] eqn:Hl.
  - cbn [absqval]. split.
    + apply qinv_push; [exact I|reflexivity|intros h0 i0 p0 Hn; split; [reflexivity|discriminate]|discriminate|].
      cbn [qh_ino]. apply (qi_range s I (f, i)). apply dlookup_In. exact Hl.
    + rewrite map_length. f_equal. unfold q_abs, with_hs, q_with.
      cbn [c_dir c_hs c_lock c_nlock c_meta c_closed q_dir q_hs q_lock q_nlock q_closed q_cur]. rewrite Hc.
      rewrite map_app. cbn [map abs_qhandle]. f_equal.
      symmetry. apply absq_dir_ext. intros e He. unfold absqval, q_ino. cbn [q_inos q_hs]. now rewrite lqw_app_reader.
  - replace (if has_old_name (fd_of f) then lookup (q_other s) (gen_old_name (fd_of f)) else None) with (@None nat).
    + split; [exact I|reflexivity].
    + destruct (has_old_name (fd_of f)); [|reflexivity]. cbn [andb] in D. unfold has in D.
      destruct (lookup (q_other s) (gen_old_name (fd_of f))); [discriminate|reflexivity].
Qed.

Lemma qref_create s f : qinv s -> op_int64 (SCreate f) -> dev_fs s (SCreate f) = false -> qrefines s (SCreate f).
Proof.
  intros I Hi D. unfold qrefines. cbn [qstep dev_fs op_int64] in *. rewrite qguard_create. unfold cstep.
  change (c_closed (q_abs s)) with (q_closed s). change (c_hs (q_abs s)) with (map abs_qhandle (q_hs s)).
  destruct (xfd_ok f) eqn:Hok; cbn [negb]; [|split; [exact I|reflexivity]].
  destruct (q_closed s) eqn:Hc; [split; [exact I|reflexivity]|]. cbn [andb negb] in D.
  destruct (dlookup f (q_dir s)) as [i|] eqn:Hl.
  - assert (Hr : (i < length (q_inos s))%nat) by (apply (qi_range s I (f, i)); apply dlookup_In; exact Hl).
    split.
    + apply qinv_push; [exact I|apply set_nth_length| | |exact Hr].
      * intros h0 i0 p0 Hn. pose proof (ino_busy_false s i h0 _ D Hn eq_refl) as Hne. cbn [qh_ino] in Hne. split.
        -- rewrite ino_after_set. destruct (Nat.eqb_spec i i0); [congruence|reflexivity].
        -- intros p c [= -> _ _]. congruence.
      * intros i0 p [= <- <-]. rewrite ino_after_set, Nat.eqb_refl. apply Nat.ltb_lt in Hr. rewrite Hr. reflexivity.
    + rewrite map_length. f_equal. unfold q_abs, q_with.
      cbn [c_dir c_hs c_lock c_nlock c_meta c_closed q_dir q_hs q_lock q_nlock q_closed q_cur]. rewrite Hc.
      rewrite map_app. cbn [map abs_qhandle]. f_equal.
      set (s' := QS (q_dir s) (q_other s) (set_nth (q_inos s) i []) (q_hs s ++ [QW i 0 false]) (q_cur s) false (q_lock s) (q_nlock s)).
      apply Nat.ltb_lt in Hr.
      apply (map_dset_existing (abs_qentry s) (abs_qentry s') f i); auto using abs_qentry_key, (qi_keys s I), (qi_inos s I).
      * unfold abs_qentry, s', q_ino. cbn [snd q_inos q_hs]. rewrite ino_after_set, Nat.eqb_refl, Hr.
        cbn [andb]. rewrite lqw_app_writer, Nat.eqb_refl. reflexivity.
      * intros e He Hsj. unfold abs_qentry. f_equal. unfold s', q_ino. cbn [q_inos q_hs]. rewrite ino_after_set.
        destruct (Nat.eqb_spec i (snd e)); [congruence|]. cbn [andb]. rewrite lqw_app_writer.
        destruct (Nat.eqb_spec i (snd e)); [congruence|]. reflexivity.
  - set (i := length (q_inos s)).
    destruct I as [K F R W HR O C].
    split.
    + destruct (dir_ok_fresh _ _ f (conj K (conj F R)) Hl) as (K' & F' & R').
      unfold q_with. constructor; cbn [q_dir q_inos q_hs q_cur]; auto.
      * intros e He. rewrite app_length, Nat.add_1_r. apply R', He.
      * intros h0 i0 p0 Hn. unfold q_ino. cbn [q_inos].
        destruct (ListLemmas.nth_snoc _ _ _ _ Hn) as [[Hlt Hn']|[-> Ex]].
        -- destruct (W _ _ _ Hn') as (W1 & W2).
           assert (Hlt0 : (i0 < i)%nat) by (apply (HR _ _ Hn')).
           rewrite app_nth1 by exact Hlt0. split; [exact W1|].
           rewrite lqw_app_writer. destruct (Nat.eqb_spec i i0); [lia|exact W2].
        -- injection Ex as -> ->. split.
           ++ rewrite app_nth2 by (subst i; lia). subst i. rewrite Nat.sub_diag. reflexivity.
           ++ rewrite lqw_app_writer, Nat.eqb_refl. reflexivity.
      * intros h0 hd Hn. rewrite app_length. cbn [length].
        destruct (ListLemmas.nth_snoc _ _ _ _ Hn) as [[Hlt Hn']|[-> ->]].
        -- specialize (HR _ _ Hn'). lia.
        -- cbn [qh_ino]. subst i. lia.
      * intros e He. rewrite dset_absent in He by exact Hl. apply in_app_or in He.
        destruct He as [He|[<-|[]]]; [auto|]. cbn [fst]. split; assumption.
    + rewrite map_length. f_equal. unfold q_abs, q_with.
      cbn [c_dir c_hs c_lock c_nlock c_meta c_closed q_dir q_hs q_lock q_nlock q_closed q_cur]. rewrite Hc.
      rewrite map_app. cbn [map abs_qhandle]. f_equal.
      set (s' := QS (dset f i (q_dir s)) (q_other s) (q_inos s ++ [[]]) (q_hs s ++ [QW i 0 false]) (q_cur s) false (q_lock s) (q_nlock s)).
      assert (Ej : absqval s' i = ([], Some (length (q_hs s)))).
      { unfold absqval, s', q_ino. cbn [q_inos q_hs]. rewrite app_nth2 by (subst i; lia). subst i. rewrite Nat.sub_diag.
        cbn [nth]. rewrite lqw_app_writer, Nat.eqb_refl. reflexivity. }
      rewrite <- (dset_map (abs_qentry s') (abs_qentry_key s')). cbn [abs_qentry snd fst]. fold (absqval s' i). rewrite Ej.
      f_equal. symmetry. apply absq_dir_ext. intros e He. pose proof (R e He) as Hr.
      unfold absqval, s', q_ino. cbn [q_inos q_hs]. rewrite app_nth1 by exact Hr. rewrite lqw_app_writer.
      destruct (Nat.eqb_spec i (snd e)); [subst i; lia|]. reflexivity.
Qed.

Lemma qinv_dir_ok s : qinv s -> dir_ok (q_dir s) (length (q_inos s)).
Proof. intros [K F R _ _ _ _]. exact (conj K (conj F R)). Qed.

Lemma qinv_dir s d :
  qinv s -> dir_ok d (length (q_inos s)) -> (forall e, In e d -> key_ok (fst e)) ->
  qinv (q_with s d (q_other s) (q_inos s) (q_hs s)).
Proof. intros [K F R W HR O C] (K' & F' & R') O'. unfold q_with. constructor; cbn [q_dir q_inos q_hs q_cur]; auto. Qed.

Lemma absq_dir_only s d :
  q_abs (q_with s d (q_other s) (q_inos s) (q_hs s)) = with_dir (q_abs s) (map (abs_qentry s) d).
Proof. reflexivity. Qed.

Lemma qref_remove s f : qinv s -> dev_fs s (SRemove f) = false -> qrefines s (SRemove f).
Proof.
  intros I D. unfold qrefines. cbn [qstep dev_fs] in *. rewrite qguard_remove. unfold cstep.
  change (c_closed (q_abs s)) with (q_closed s).
  destruct (xfd_ok f) eqn:Hok; cbn [negb]; [|split; [exact I|reflexivity]].
  destruct (q_closed s) eqn:Hc; [split; [exact I|reflexivity]|]. cbn [andb negb] in D.
  rewrite absq_lookup.
  destruct (dlookup f (q_dir s)) as [i|] eqn:Hl.
  - split.
    + apply qinv_dir; [exact I|apply dir_ok_remove, qinv_dir_ok, I|].
      intros e He. apply In_dremove in He. apply (qi_keyok s I). apply He.
    + rewrite absq_dir_only. f_equal. unfold with_dir. f_equal.
      change (c_dir (q_abs s)) with (map (abs_qentry s) (q_dir s)).
      apply (dremove_map (abs_qentry s) (abs_qentry_key s)).
  - rewrite D. split; [exact I|reflexivity].
Qed.

Lemma qref_rename s a b : qinv s -> op_int64 (SRename a b) -> qrefines s (SRename a b).
Proof.
  intros I (Ia & Ib). unfold qrefines. cbn [qstep]. rewrite qguard_rename. unfold cstep.
  change (c_closed (q_abs s)) with (q_closed s).
  destruct (xfd_ok a) eqn:Ha; cbn [negb orb andb]; [|split; [exact I|reflexivity]].
  destruct (xfd_ok b) eqn:Hb; cbn [negb orb andb]; [|split; [exact I|reflexivity]].
  destruct (xfd_eqb_spec a b) as [->|Nab]; [split; [exact I|reflexivity]|].
  destruct (q_closed s) eqn:Hc; [split; [exact I|reflexivity]|].
  rewrite absq_lookup.
  destruct (dlookup a (q_dir s)) as [ia|] eqn:Hla; [|split; [exact I|reflexivity]].
  split.
  - apply qinv_dir; [exact I|apply dir_ok_rename; [apply qinv_dir_ok, I|exact Hla]|].
    intros e He. destruct (In_rename _ _ _ _ _ (qi_keys s I) He) as [->|Hd]; [split; assumption|apply (qi_keyok s I), Hd].
  - rewrite absq_dir_only. f_equal. unfold with_dir. f_equal.
    change (c_dir (q_abs s)) with (map (abs_qentry s) (q_dir s)).
    rewrite (dremove_map (abs_qentry s) (abs_qentry_key s)).
    apply (dset_map (abs_qentry s) (abs_qentry_key s) b ia).
Qed.

Lemma filter_parse_app a b : filter_parse (a ++ b) = filter_parse a ++ filter_parse b.
Proof.
  induction a as [|n a IH]; [reflexivity|]. cbn [app filter_parse]. destruct (parse_name n); [cbn [app]; now rewrite IH|exact IH].
Qed.

Lemma cur_name_no_parse n : is_cur_name n = true -> parse_name n = None.
Proof.
  unfold is_cur_name, is_prefix. destruct n as [|c r]; [discriminate|]. unfold s_CURRENT. cbn [strip_prefix].
  destruct (N.eqb_spec 67 c) as [<-|]; [intros _; apply parse_name_C|discriminate].
Qed.

Lemma filter_parse_cur (l : list bytes) : (forall n, In n l -> is_cur_name n = true) -> filter_parse l = [].
Proof.
  induction l as [|n l IH]; intros H; [reflexivity|]. cbn [filter_parse].
  rewrite (cur_name_no_parse n) by (apply H; left; reflexivity). apply IH. intros m Hm. apply H. right. exact Hm.
Qed.

Lemma xfd_of_fd_of k : xfd_ok k = true -> xfd_of (fd_of k) = k.
Proof.
  destruct k as [t n]. unfold xfd_ok, xfd_of, fd_of, ftype_of, ftype_of_code. cbn [x_ty x_num fd_type fd_num].
  intros H. apply andb_prop in H. destruct H as (H & _).
  destruct (N.eqb_spec t 1) as [->|]; [reflexivity|].
  destruct (N.eqb_spec t 2) as [->|]; [reflexivity|].
  destruct (N.eqb_spec t 4) as [->|]; [reflexivity|].
  destruct (N.eqb_spec t 8) as [->|]; [reflexivity|]. discriminate.
Qed.

Lemma filter_parse_gen (d : list (xfd * nat)) :
  (forall e, In e d -> key_ok (fst e)) ->
  filter_parse (map (fun e => gen_name (fd_of (fst e))) d) = map fst d.
Proof.
  induction d as [|e d IH]; intros H; [reflexivity|]. cbn [map filter_parse].
  destruct (H e (or_introl eq_refl)) as (H1 & H2).
  rewrite parse_gen_name by exact H2. rewrite xfd_of_fd_of by exact H1. f_equal. apply IH. intros e' He'. apply H. right. exact He'.
Qed.

Lemma qref_list s mask : qinv s -> dev_fs s (SList mask) = false -> qrefines s (SList mask).
Proof.
  intros I D. unfold qrefines. cbn [qstep dev_fs] in *. rewrite qguard_list. unfold cstep.
  change (c_closed (q_abs s)) with (q_closed s).
  destruct (q_closed s) eqn:Hc; [split; [exact I|reflexivity]|]. cbn [andb negb] in D.
  split; [exact I|]. f_equal. f_equal. f_equal.
  unfold q_abs. cbn [c_dir]. rewrite map_map. cbn [abs_qentry fst].
  unfold q_view. rewrite !map_app, !filter_parse_app, !map_map. cbn [fst].
  rewrite (filter_parse_cur (map fst (q_cur s))) by (apply (qi_cur s I)).
  rewrite (filter_parse_gen (q_dir s)) by (apply (qi_keyok s I)).
  apply negb_false_iff in D.
  change (map (fun x : bytes * nat => fst x) (q_other s)) with (map fst (q_other s)).
  destruct (filter_parse (map fst (q_other s))); [now rewrite app_nil_r|discriminate].
Qed.

Lemma qref_write s h d : qinv s -> dev_fs s (HWrite h d) = false -> qrefines s (HWrite h d).
Proof.
  intros I D. unfold qrefines. cbn [qstep dev_fs] in *. unfold cstep.
  change (c_hs (q_abs s)) with (map abs_qhandle (q_hs s)). rewrite nth_error_map.
  destruct (nth_error (q_hs s) h) as [[i pos c|i sn c]|] eqn:Hn; cbn [option_map abs_qhandle qh_closed] in *;
    [|destruct c; split; try exact I; reflexivity|split; [exact I|reflexivity]].
  subst c. destruct I as [K F R W HR O C].
  destruct (W _ _ _ Hn) as (Hpos & Hlast). subst pos. rewrite write_at_end.
  assert (Hir : (i < length (q_inos s))%nat) by (apply (HR _ _ Hn)).
  assert (Hsame : forall y, nth_error (q_hs s) h = Some y -> qw_file y = qw_file (QW i (lenN (q_ino s i) + lenN d) false))
    by (intros y Hy; rewrite Hn in Hy; injection Hy as <-; reflexivity).
  split.
  - unfold q_with. constructor; cbn [q_dir q_inos q_hs q_cur]; auto.
    + intros e He. rewrite set_nth_length. auto.
    + intros h0 i0 p0 Hn0. rewrite nth_error_set_nth in Hn0. rewrite lqw_set by exact Hsame.
      unfold q_ino. cbn [q_inos]. rewrite nth_set_nth.
      destruct (Nat.eqb_spec h h0) as [<-|Nh].
      * apply Nat.ltb_lt in Hir. destruct (Nat.ltb h (length (q_hs s))); [|discriminate].
        injection Hn0 as <- <-. rewrite Nat.eqb_refl, Hir. cbn [andb]. split; [now rewrite lenN_app|exact Hlast].
      * destruct (W _ _ _ Hn0) as (W1 & W2). destruct (Nat.eqb_spec i i0) as [<-|Ni].
        -- exfalso. apply Nh. congruence.
        -- cbn [andb]. auto.
    + intros h0 hd Hn0. rewrite set_nth_length. rewrite nth_error_set_nth in Hn0.
      destruct (Nat.eqb_spec h h0) as [<-|Nh]; [|eauto].
      destruct (Nat.ltb h (length (q_hs s))); [|discriminate]. injection Hn0 as <-. exact Hir.
  - f_equal. unfold q_abs, q_with, with_dir.
    cbn [c_dir c_hs c_lock c_nlock c_meta c_closed q_dir q_hs q_lock q_nlock q_closed q_cur]. f_equal.
    + rewrite map_map. apply map_ext_in. intros [k j'] He. unfold abs_qentry, cappend. cbn [fst snd q_hs].
      rewrite lqw_set by exact Hsame. unfold q_ino. cbn [q_inos]. rewrite nth_set_nth.
      specialize (R _ He). cbn [snd] in R.
      destruct (Nat.eqb_spec i j') as [<-|N].
      * apply Nat.ltb_lt in Hir. rewrite Hir. cbn [andb]. rewrite Hlast, Nat.eqb_refl. reflexivity.
      * cbn [andb]. destruct (last_qwriter (q_hs s) j') as [h'|] eqn:Hl; [|reflexivity].
        destruct (Nat.eqb_spec h' h) as [->|]; [|reflexivity].
        apply lqw_sound in Hl. destruct Hl as (p1 & c1 & Hl). rewrite Hn in Hl. congruence.
    + rewrite map_set_nth. cbn [abs_qhandle]. symmetry. apply set_nth_same.
      rewrite nth_error_map, Hn. reflexivity.
Qed.

Lemma qinv_close_handle s h hd hd' :
  qinv s -> nth_error (q_hs s) h = Some hd -> qw_file hd' = qw_file hd -> qh_ino hd' = qh_ino hd -> qh_closed hd' = true ->
  let s' := q_with s (q_dir s) (q_other s) (q_inos s) (set_nth (q_hs s) h hd') in
  qinv s' /\ map (abs_qentry s') (q_dir s) = map (abs_qentry s) (q_dir s).
Proof.
  intros [K F R W HR O C] Hn Hw Hi Hc s'.
  assert (Hsame : forall y, nth_error (q_hs s) h = Some y -> qw_file y = qw_file hd').
  { intros y Hy. rewrite Hn in Hy. injection Hy as <-. symmetry. exact Hw. }
  subst s'. unfold q_with. split.
  - constructor; cbn [q_dir q_inos q_hs q_cur]; auto.
    + intros h0 i0 p0 Hn0. rewrite nth_error_set_nth in Hn0. rewrite lqw_set by exact Hsame.
      destruct (Nat.eqb_spec h h0) as [<-|Nh]; [|apply (W _ _ _ Hn0)].
      destruct (Nat.ltb _ _); [injection Hn0 as E; rewrite E in Hc|]; discriminate.
    + intros h0 x Hn0. rewrite nth_error_set_nth in Hn0.
      destruct (Nat.eqb_spec h h0) as [<-|Nh]; [|eauto].
      destruct (Nat.ltb h (length (q_hs s))); [|discriminate]. injection Hn0 as <-. rewrite Hi. apply (HR _ _ Hn).
  - apply absq_dir_ext. intros e0 He. unfold absqval, q_ino. cbn [q_inos q_hs]. rewrite lqw_set by exact Hsame. reflexivity.
Qed.

Lemma qref_hclose s h : qinv s -> qrefines s (HClose h).
Proof.
  intros I. unfold qrefines. cbn [qstep]. unfold cstep.
  change (c_hs (q_abs s)) with (map abs_qhandle (q_hs s)). rewrite nth_error_map.
  destruct (nth_error (q_hs s) h) as [hd|] eqn:Hn; cbn [option_map]; [|split; [exact I|reflexivity]].
  destruct hd as [i pos [|]|i sn [|]]; cbn [abs_qhandle]; try (split; [exact I|reflexivity]).
  - destruct (qinv_close_handle s h _ (QW i pos true) I Hn eq_refl eq_refl eq_refl) as (I' & E).
    split; [exact I'|]. unfold q_abs, q_with, with_hs in *. cbn [c_dir c_hs q_dir q_hs q_lock q_nlock q_closed q_cur] in *.
    rewrite E, map_set_nth. reflexivity.
  - destruct (qinv_close_handle s h _ (QR i sn true) I Hn eq_refl eq_refl eq_refl) as (I' & E).
    split; [exact I'|]. unfold q_abs, q_with, with_hs in *. cbn [c_dir c_hs q_dir q_hs q_lock q_nlock q_closed q_cur] in *.
    rewrite E, map_set_nth. reflexivity.
Qed.

Theorem fs_step_refines s o : qinv s -> op_int64 o -> dev_fs s o = false -> qrefines s o.
Proof.
  intros I Hi D. destruct o.
  - apply qref_lock; auto.
  - apply qref_unlock; auto.
  - discriminate D.
  - discriminate D.
  - apply qref_list; auto.
  - apply qref_open; auto.
  - apply qref_create; auto.
  - apply qref_remove; auto.
  - apply qref_rename; auto.
  - apply qref_close; auto.
  - apply qref_write; auto.
  - apply qref_sync; auto.
  - apply qref_readall; auto.
  - apply qref_hclose; auto.
Qed.

Theorem fs_run_refines : forall ops s,
  qinv s -> Forall op_int64 ops -> fs_dev_free s ops = true ->
  let '(s', rs) := qrun s ops in qinv s' /\ crun (q_abs s) ops = (q_abs s', rs).
Proof.
  induction ops as [|o ops IH]; intros s I Hi D; cbn [qrun crun].
  - auto.
  - cbn [fs_dev_free] in D. apply andb_prop in D. destruct D as (D1 & D2). apply negb_true_iff in D1.
    inversion Hi as [|? ? Ho Hops]; subst.
    pose proof (fs_step_refines s o I Ho D1) as R. unfold qrefines in R.
    destruct (qstep s o) as [s1 r] eqn:Hs. cbn [fst] in D2. destruct R as (I1 & R1).
    specialize (IH s1 I1 Hops D2). destruct (qrun s1 ops) as [s2 rs]. destruct IH as (I2 & R2).
    split; [exact I2|]. rewrite R1, R2. reflexivity.
Qed.

Corollary filestorage_contract_from_empty ops :
  Forall op_int64 ops -> fs_dev_free q_empty ops = true -> snd (crun c_empty ops) = snd (qrun q_empty ops).
Proof.
  intros Hi D. pose proof (fs_run_refines ops q_empty qinv_empty Hi D) as R.
  destruct (qrun q_empty ops) as [s' rs]. destruct R as (_ & R).
  change (q_abs q_empty) with c_empty in R. rewrite R. reflexivity.
Qed.
