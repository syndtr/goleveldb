(* Store/OpenPathProofs.v — Open as a whole (Store/OpenPath.v open_bytes) on byte-level crash images.
   Composes, without re-proving anything of theirs:
     Store/CrashBytesProofs.v   what the tolerant journal reader yields on a crash image of a journal-format file
                                (crash_bytes_prefix: a prefix of the written records that contains the synced ones)
     Store/ManifestReplayProofs.v  session.recover on records that decode (manifest_replay, manifest_replay_abs)
     Store/OpenJournalProofs.v  the replay of written journal records into the buffer
     Store/CrashProofs.v        crash_safe of the record-level model
     Lsm/BatchWriteProofs.v     the byte-level read after a replayed group (write_wf, get_after_write)            *)
From Coq Require Import List NArith ZArith Bool Lia.
From GL Require Import Mem.ListLemmas.
From GL Require Import Base.Bytes Base.Order Codec.IKey Codec.Journal Codec.JournalSpec Codec.SessionRecordSpec
  Lsm.History Lsm.ReadPath Lsm.ReadPathMem Lsm.BatchWriteProofs Store.CrashProofs Store.CrashBytes
  Store.CrashBytesProofs Store.ManifestReplayProofs Store.OpenPath Store.OpenJournalProofs.
From GL Require Mem.MemDB Mem.MemOps Store.FileStorageCrashProofs.
Import ListNotations.
Open Scope N_scope.

Definition raw_id (x : bytes) : bytes := x.
Definition raw_some (x : bytes) : option bytes := Some x.

Lemma keep_decoded_raw l : keep_decoded bytes raw_some l = l.
Proof. induction l as [|x l IH]; [reflexivity|]. cbn [keep_decoded flat_map raw_some app]. f_equal. exact IH. Qed.

Lemma dec_ok_raw l : dec_ok bytes raw_id raw_some l.
Proof. apply Forall_forall. intros x _. reflexivity. Qed.

(* d is what a crash can leave of a journal-format file into which the records raws were written, the first k of
   them synced (Store/CrashBytes.v is_crash_bytes with the records as they are) *)
Definition is_crash_file (crc : bytes -> N) (p : jparams) (ck : bool) (raws : list bytes) (k : nat) (d : bytes) : Prop :=
  is_crash_bytes crc p raw_id ck raws k d.

(* a file that was written whole and lost nothing is one of its own crash images, whatever had been synced: the cut
   lies at or behind its end, and behind a pure cut nothing is forged (CrashBytesProofs.no_forgery_tail_cut) *)
Lemma whole_file_crash crc p (pok : jparams_ok p) ck raws k : is_crash_file crc p ck raws k (jwrite crc p [] raws).
Proof.
  set (n := Nat.max (synced_len crc p bytes raw_id [] raws k) (length (jwrite crc p [] raws))).
  assert (E : jwrite crc p [] raws = crash_bytes crc p bytes raw_id [] raws n []).
  { unfold crash_bytes, jbytes, raw_id. rewrite map_id, firstn_all2 by apply Nat.le_max_r. symmetry. apply app_nil_r. }
  exists [], n, []. split; [apply Nat.le_max_l|]. split; [exact E|].
  rewrite E. apply (no_forgery_tail_cut crc p pok).
Qed.

(* the tolerant reader on such a file: clean outcomes whose records are a prefix containing the synced ones *)
Lemma crash_file_records crc p (pok : jparams_ok p) ck raws k d : is_crash_file crc p ck raws k d ->
  exists k', (k <= k')%nat /\ recs_of (jread crc p false ck d) = firstn k' raws.
Proof.
  intros H. destruct (crash_bytes_prefix crc p pok bytes raw_id raw_some ck raws k d (dec_ok_raw raws) H) as (k' & Hk & E).
  exists k'. split; [exact Hk|]. unfold recover_bytes, recover_records in E. rewrite keep_decoded_raw in E. exact E.
Qed.

Lemma upto_err_clean l : Forall clean_outcome l -> exists l', upto_err l = (l', None) /\ recs_of l' = recs_of l.
Proof.
  induction 1 as [|x l Hx Hl (l' & E & R)]; [exists []; split; reflexivity|].
  destruct x; try contradiction; cbn [upto_err]; rewrite ?E.
  - exists (Rec b :: l'). split; [reflexivity|]. cbn [recs_of flat_map app]. f_equal. exact R.
  - exists (Skipped :: l'). split; [reflexivity|]. exact R.
  - exists l'. split; [reflexivity|exact R].
Qed.

Definition olist {A} (o : option A) : list A := match o with Some a => [a] | None => [] end.

Section OpenProofs.
  Variable jcrc : bytes -> N.
  Variable jp : jparams.
  Hypothesis jpok : jparams_ok jp.
  Variable rp : SR.rparams.
  Hypothesis rpok : rparams_ok rp.
  Variable kp : kparams.
  Hypothesis kpok : kparams_ok kp.
  Hypothesis seek_val : keyTypeSeek kp <= keyTypeVal kp.
  Variable mp : MemDB.mparams.
  Hypothesis mpok : MemDB.mparams_ok mp.
  Variable tp : Table.tparams.
  Variable tcrc : bytes -> N.
  Variable compress : bytes -> bytes.
  Variable snappy : bool.
  Variable fgen : option (bytes * (list (N * list bytes) -> bytes)).
  Variable blockSize ri : N.
  Variable c : comparer.
  Hypothesis cok : comparer_ok c.

  Local Notation bhl := 12.
  Local Notation srecover := (OpenPath.session_recover jcrc jp rp c).

  (* a manifest record as written: the record and its bytes, which decode to it *)
  Definition mrec_ok (x : SR.srec * bytes) : Prop := SR.decode rp SR.sr_empty (snd x) = SR.DOk (fst x).

  Lemma mrecs_forall2 (l : list (SR.srec * bytes)) : Forall mrec_ok l ->
    Forall2 (fun b r => SR.decode rp SR.sr_empty b = SR.DOk r) (map snd l) (map fst l).
  Proof. induction 1 as [|x l Hx Hl IH]; cbn [map]; constructor; assumption. Qed.

  Definition sort_levels (lv : list (list SR.atrec)) : list (list SR.atrec) :=
    map (fun lt => sort_level c (fst lt) (snd lt)) (combine (seq 0 (length lv)) lv).

  (* session.recover on a crash image of the manifest: it reads a prefix of the records that contains the synced
     ones and installs what replay_result says of that prefix *)
  Lemma session_recover_written o m mrecs ks d :
    oo_strict_man o = false -> Forall mrec_ok mrecs -> is_crash_file jcrc jp true (map snd mrecs) ks d ->
    (forall k, (ks <= k)%nat -> exists j pj nf q live cps,
       replay_result rp (oo_cmp_name o) (firstn k (map fst mrecs)) = SpecOk j pj nf q live cps) ->
    exists k j pj nf q live cps s lv,
      (ks <= k)%nat /\
      replay_result rp (oo_cmp_name o) (firstn k (map fst mrecs)) = SpecOk j pj nf q live cps /\
      srecover o m d = OOk s /\
      s_next s = nf /\ s_jnum s = j /\ s_prev s = pj /\ s_seq s = q /\ s_manfd s = Z.of_N m /\ s_hasman s = false /\
      s_levels s = sort_levels lv /\ (forall l : nat, nth l lv [] = live_at (Z.of_nat l) live).
  Proof.
    intros Hns Hrecs Hcb Hman.
    destruct (crash_file_records jcrc jp jpok true _ _ _ Hcb) as (k & Hk & Erecs).
    destruct (Hman k Hk) as (j & pj & nf & q & live & cps & Espec).
    destruct (upto_err_clean _ (jread_tolerant_clean jcrc jp jpok true d)) as (l' & Eup & Erl).
    assert (F2 : Forall2 (fun b r => SR.decode rp SR.sr_empty b = SR.DOk r)
                         (recs_of l') (firstn k (map fst mrecs))).
    { rewrite Erl, Erecs, !firstn_map. apply mrecs_forall2.
      apply FileStorageCrashProofs.Forall_firstn'. exact Hrecs. }
    pose proof (manifest_replay rp rpok false (oo_cmp_name o) _ _ F2) as Hag.
    rewrite Espec in Hag. unfold agrees in Hag.
    destruct (SR.session_recover rp false (oo_cmp_name o) (recs_of l')) as [st|f] eqn:Esr; [|contradiction].
    destruct Hag as (Ej & Epj & Enf & Eq & Hlv & _).
    exists k, j, pj, nf, q, live, cps. eexists. exists (SR.ss_levels st).
    split; [exact Hk|]. split; [exact Espec|]. split.
    - unfold OpenPath.session_recover. rewrite Hns, Eup, Esr. reflexivity.
    - cbn [s_next s_jnum s_prev s_seq s_manfd s_hasman s_levels].
      repeat split; try assumption; reflexivity.
  Qed.

  Local Notation jbatch := OpenJournalProofs.jbatch.
  Local Notation jb_ok := (OpenJournalProofs.jb_ok kp).
  Local Notation jb_enc := (OpenJournalProofs.jb_enc kp).
  Local Notation jb_entries := (OpenJournalProofs.jb_entries kp).
  Local Notation minv := (OpenJournalProofs.mem_inv kp mp c).
  Local Notation loop_ro := (rj_loop_ro jcrc jp rp kp bhl mp tp tcrc compress snappy fgen blockSize ri c).

  (* a journal file: its number, the batches written to it, how many of them were synced *)
  Record jdesc := mkJD { jd_num : N; jd_bs : list jbatch; jd_synced : nat }.

  Definition jfile_ok (ck : bool) (fs : files) (jd : jdesc) : Prop :=
    Forall jb_ok (jd_bs jd) /\
    exists d, f_lookup fs (SW.FJournal, jd_num jd) = Some d /\
              is_crash_file jcrc jp ck (map jb_enc (jd_bs jd)) (jd_synced jd) d.

  (* what a crash kept of the journals sel: per journal a prefix of its batches that contains the synced ones *)
  Definition kept_prefixes (sel : list jdesc) (bss : list (list jbatch)) : Prop :=
    Forall2 (fun jd bs => exists k, (jd_synced jd <= k)%nat /\ bs = firstn k (jd_bs jd)) sel bss.

  Lemma loop_ro_written o sel : oo_strict_j o = false -> forall st,
    Forall (jfile_ok (oo_jck o) (c_files (r_c st))) sel -> minv st ->
    exists bss st', kept_prefixes sel bss /\
      loop_ro o (map jd_num sel) st = OOk st' /\ r_c st' = r_c st /\ minv st' /\
      r_seq st' = snd (accepted (concat bss) (r_seq st)) /\
      r_kept st' = r_kept st ++ map jb_pair (fst (accepted (concat bss) (r_seq st))) /\
      (forall x, In x (mem_entries mp (Some (r_mdb st'))) <->
                 In x (mem_entries mp (Some (r_mdb st))) \/
                 In x (flat_map jb_entries (fst (accepted (concat bss) (r_seq st))))).
  Proof.
    intros Hns. induction sel as [|jd sel IH]; intros st Hsel Hinv.
    - exists [], st. split; [constructor|]. cbn [map rj_loop_ro concat accepted fst snd flat_map]. rewrite app_nil_r.
      split; [reflexivity|]. split; [reflexivity|]. split; [exact Hinv|]. split; [reflexivity|]. split; [reflexivity|].
      intros x. split; [intros H; left; exact H|intros [H|[]]; exact H].
    - inversion Hsel as [|? ? (Hbs & d & Ed & Hcb) Hrest]; subst.
      destruct (crash_file_records jcrc jp jpok (oo_jck o) _ _ _ Hcb) as (k & Hk & Erecs).
      cbn [map rj_loop_ro]. unfold journal_bytes. rewrite Ed, Hns.
      rewrite (replay_outcomes_recs rp kp mp tp tcrc compress snappy fgen blockSize ri c o false (jd_num jd) _
                 (jread_tolerant_clean jcrc jp jpok (oo_jck o) d) st).
      rewrite Erecs, firstn_map.
      assert (Hbk : Forall jb_ok (firstn k (jd_bs jd))).
      { apply FileStorageCrashProofs.Forall_firstn'. exact Hbs. }
      destruct (replay_recs_written rp kp kpok seek_val mp mpok tp tcrc compress snappy fgen blockSize ri c cok
                  o (jd_num jd) _ Hns Hbk st Hinv) as (st1 & E1 & Ec1 & _ & Hinv1 & Es1 & Ek1 & Hin1).
      rewrite E1. cbn [obind].
      assert (Hsel1 : Forall (jfile_ok (oo_jck o) (c_files (r_c st1))) sel) by (rewrite Ec1; exact Hrest).
      destruct (IH st1 Hsel1 Hinv1) as (bss & st' & Hp & E' & Ec' & Hinv' & Es' & Ek' & Hin').
      exists (firstn k (jd_bs jd) :: bss), st'. split.
      { constructor; [exists k; split; [exact Hk|reflexivity]|exact Hp]. }
      split; [exact E'|]. split; [congruence|]. split; [exact Hinv'|].
      cbn [concat]. rewrite accepted_app. cbn [fst snd]. rewrite <- Es1.
      split; [exact Es'|]. split.
      + rewrite Ek', Ek1, map_app, app_assoc. reflexivity.
      + intros x. rewrite Hin', Hin1, flat_map_app, in_app_iff. tauto.
  Qed.

  Lemma new_mem_ok : exists d, MemDB.mdb_new mp = MemDB.Ok d /\ mem_ok c kp mp d /\ mem_entries mp (Some d) = [].
  Proof.
    destruct (MemOps.new_ok (ibc c) mp mpok) as (d & E & R).
    exists d. split; [exact E|]. exact (rep_empty_ok kp seek_val mp mpok c d R).
  Qed.

  (* img is a crash image of: the manifest m holding the records mrecs (ks of them synced) to which the meta
     pointer points, and the journal files js (ascending), each a crash image of its batches *)
  Definition image_ok (o : oopts) (img : simage) (m : N) (mrecs : list (SR.srec * bytes)) (ks : nat)
      (js : list jdesc) : Prop :=
    si_meta img = Some m /\
    (exists d, f_lookup (si_files img) (SW.FManifest, m) = Some d /\
               is_crash_file jcrc jp true (map snd mrecs) ks d) /\
    Forall mrec_ok mrecs /\
    SW.nsort (SW.journals_of (f_list (si_files img))) = map jd_num js /\
    Forall (jfile_ok (oo_jck o) (si_files img)) js.

  (* every admissible prefix of the manifest passes session.recover's checks *)
  Definition manifest_ok (o : oopts) (mrecs : list (SR.srec * bytes)) (ks : nat) : Prop :=
    forall k, (ks <= k)%nat -> exists j pj nf q live cps,
      replay_result rp (oo_cmp_name o) (firstn k (map fst mrecs)) = SpecOk j pj nf q live cps.

  Definition selected (j pj : Z) (js : list jdesc) : list jdesc :=
    filter (fun jd => SW.jsel (Z.to_N j) (Z.to_N pj) (jd_num jd)) js.

  Local Notation openb := (open_bytes jcrc jp rp kp bhl mp tp tcrc compress snappy fgen blockSize ri c).

  (* Open up to the point where its two modes part: session.recover on the manifest the meta pointer names, the
     journals it selects, a new empty buffer *)
  Lemma open_recovered o hts img m mrecs ks js :
    oo_strict_man o = false -> oo_err_exist o = false -> heights_okl mp hts ->
    image_ok o img m mrecs ks js -> manifest_ok o mrecs ks ->
    exists k j pj nf q live cps s lv d0,
      (ks <= k)%nat /\
      replay_result rp (oo_cmp_name o) (firstn k (map fst mrecs)) = SpecOk j pj nf q live cps /\
      s_next s = nf /\ s_jnum s = j /\ s_seq s = q /\
      s_levels s = sort_levels lv /\ (forall l : nat, nth l lv [] = live_at (Z.of_nat l) live) /\
      MemDB.mdb_new mp = MemDB.Ok d0 /\ mem_entries mp (Some d0) = [] /\
      (forall cs, minv (mkRJ cs SR.sr_empty q d0 hts [])) /\
      jsel_list s (si_files img) = map jd_num (selected j pj js) /\
      Forall (jfile_ok (oo_jck o) (si_files img)) (selected j pj js) /\
      openb o hts img =
        (if oo_ro o then open_ro jcrc jp rp kp bhl mp tp tcrc compress snappy fgen blockSize ri c
         else open_rw jcrc jp rp kp bhl mp tp tcrc compress snappy fgen blockSize ri c) o hts (mkC (si_files img) (Some m) s [] []).
  Proof.
    intros Hsm Hee Hh (Hmeta & (dm & Edm & Hcb) & Hrecs & Hlist & Hjs) Hman.
    destruct (session_recover_written o m mrecs ks dm Hsm Hrecs Hcb Hman)
      as (k & j & pj & nf & q & live & cps & s & lv & Hk & Espec & Es & Enf & Ej & Epj & Eq & _ & _ & Elv & Hlv).
    destruct new_mem_ok as (d0 & Enew & Hm0 & Hent0).
    exists k, j, pj, nf, q, live, cps, s, lv, d0.
    split; [exact Hk|]. split; [exact Espec|]. split; [exact Enf|]. split; [exact Ej|]. split; [exact Eq|].
    split; [exact Elv|]. split; [exact Hlv|]. split; [exact Enew|]. split; [exact Hent0|]. split.
    { intros cs. split; [exact Hm0|]. split; [exact Hh|]. cbn [r_mdb]. rewrite Hent0. intros x []. }
    split.
    { unfold jsel_list, SW.rj_select, selected. rewrite Hlist, Ej, Epj. apply map_filter_comm. }
    split.
    { apply Forall_forall. intros x Hx. apply filter_In in Hx as [Hx _]. rewrite Forall_forall in Hjs. exact (Hjs x Hx). }
    unfold open_bytes, manifest_of. rewrite Hmeta, Edm. cbn [option_map obind]. rewrite Es. cbn [obind].
    rewrite Hee. cbn [obind]. destruct (oo_ro o); reflexivity.
  Qed.

  (* Open, read-only, on a crash image: it returns a DB whose sequence number, kept batches and buffer are what the
     sequence rule accepts of the journal prefixes the crash left, over the tables of the manifest prefix it read;
     the image is left as it was *)
  Theorem open_ro_written o hts img m mrecs ks js :
    oo_strict_man o = false -> oo_strict_j o = false -> oo_ro o = true -> oo_err_exist o = false ->
    heights_okl mp hts -> image_ok o img m mrecs ks js -> manifest_ok o mrecs ks ->
    exists k j pj nf q live cps lv bss r d,
      (ks <= k)%nat /\
      replay_result rp (oo_cmp_name o) (firstn k (map fst mrecs)) = SpecOk j pj nf q live cps /\
      kept_prefixes (selected j pj js) bss /\
      openb o hts img = OOk r /\
      os_seq r = snd (accepted (concat bss) q) /\
      os_kept r = map jb_pair (fst (accepted (concat bss) q)) /\
      os_bs r = mkBS (Some d) None (levels_of (si_files img) (sort_levels lv)) /\
      (forall l : nat, nth l lv [] = live_at (Z.of_nat l) live) /\
      mem_ok c kp mp d /\
      (forall x, In x (mem_entries mp (Some d)) <-> In x (flat_map jb_entries (fst (accepted (concat bss) q)))) /\
      os_image r = img /\ os_removed r = [] /\ os_journal r = None.
  Proof.
    intros Hsm Hsj Hro Hee Hh Himg Hman.
    destruct (open_recovered o hts img m mrecs ks js Hsm Hee Hh Himg Hman)
      as (k & j & pj & nf & q & live & cps & s & lv & d0 & Hk & Espec & _ & _ & <- & Elv & Hlv & Enew & Hent0 & Hinv0 & Esel & Hsel & Eopen).
    set (cs := mkC (si_files img) (Some m) s [] []) in *.
    set (st0 := mkRJ cs SR.sr_empty (s_seq s) d0 hts []).
    destruct (loop_ro_written o (selected j pj js) Hsj st0 Hsel (Hinv0 cs))
      as (bss & st' & Hp & El & Ec & Hinv' & Es' & Ek' & Hin').
    exists k, j, pj, nf, (s_seq s), live, cps, lv, bss. eexists. exists (r_mdb st').
    split; [exact Hk|]. split; [exact Espec|]. split; [exact Hp|]. split.
    - rewrite Eopen, Hro. unfold open_ro. rewrite Enew. cbn [of_mres obind c_sess c_files cs]. rewrite Esel.
      fold cs st0. rewrite El. reflexivity.
    - cbn [os_seq os_kept os_bs os_image os_removed os_journal c_files c_meta c_sess cs].
      cbn [st0 r_seq r_kept r_mdb app] in Es', Ek', Hin'.
      split; [exact Es'|]. split; [exact Ek'|]. split; [rewrite Elv; reflexivity|]. split; [exact Hlv|].
      split; [exact (proj1 Hinv')|]. split.
      + intros x. rewrite Hin', Hent0. cbn [In]. tauto.
      + split; [destruct Himg as (Hmeta & _); destruct img as [mt fs]; cbn [si_meta si_files] in *; rewrite Hmeta; reflexivity|].
        split; reflexivity.
  Qed.

  Local Notation same_journals := OpenJournalProofs.same_journals.
  Local Notation newman := (new_manifest jcrc jp rp).
  Local Notation flushman := (flush_manifest jcrc jp rp).
  Local Notation commitm := (OpenPath.commit jcrc jp rp c).
  Local Notation commitrj := (commit_rj jcrc jp rp c).
  Local Notation flushm := (flush_memdb rp kp mp tp tcrc compress snappy fgen blockSize ri c).
  Local Notation loop_rw := (rj_loop jcrc jp rp kp bhl mp tp tcrc compress snappy fgen blockSize ri c).

  Lemma new_manifest_files name rec v st st' rec' : newman name rec v st = OOk (st', rec') ->
    same_journals None (c_files st) (c_files st').
  Proof.
    unfold new_manifest. destruct (SR.encode rp _) as [b|]; [|discriminate].
    destruct (record_commited rp _ _) as [s2|e]; cbn [obind]; [|discriminate].
    set (fs1 := f_set (c_files st) _ _).
    assert (J1 : same_journals None (c_files st) fs1) by apply same_journals_set_manifest.
    clearbody fs1.
    destruct (s_hasman (c_sess st) || negb (s_manfd (c_sess st) <? 0)%Z); intros E; injection E as <- _; cbn [c_files].
    - eapply same_journals_trans; [exact J1|apply same_journals_del_manifest].
    - exact J1.
  Qed.

  Lemma flush_manifest_files name rec st st' rec' : flushman name rec st = OOk (st', rec') ->
    same_journals None (c_files st) (c_files st').
  Proof.
    unfold flush_manifest. destruct (SR.encode rp _) as [b|]; [|discriminate].
    destruct (record_commited rp _ _) as [s2|e]; cbn [obind]; [|discriminate].
    set (fs1 := f_set (c_files st) _ _).
    assert (J1 : same_journals None (c_files st) fs1) by apply same_journals_set_manifest.
    clearbody fs1.
    intros E; injection E as <- _; cbn [c_files]. exact J1.
  Qed.

  Lemma commit_files o rec st st' rec' : commitm o rec st = OOk (st', rec') ->
    same_journals None (c_files st) (c_files st').
  Proof.
    unfold OpenPath.commit. destruct (spawn c _ _) as [nv|e]; cbn [obind]; [|discriminate].
    destruct (negb (s_hasman (c_sess st))).
    - destruct (newman _ rec nv st) as [[st1 rec1]|e] eqn:E1; cbn [obind]; [|discriminate].
      intros E; injection E as <- _. cbn [c_files]. exact (new_manifest_files _ _ _ _ _ _ E1).
    - destruct (oo_maxman o <=? _)%Z.
      + destruct (newman _ _ nv st) as [[st1 rec1]|e] eqn:E1; cbn [obind]; [|discriminate].
        intros E; injection E as <- _. cbn [c_files fst]. exact (new_manifest_files _ _ _ _ _ _ E1).
      + destruct (flushman _ rec st) as [[st1 rec1]|e] eqn:E1; cbn [obind]; [|discriminate].
        intros E; injection E as <- _. cbn [c_files]. exact (flush_manifest_files _ _ _ _ _ E1).
  Qed.

  Lemma commit_rj_facts o j a b : commitrj o j a = OOk b ->
    r_seq b = r_seq a /\ r_mdb b = r_mdb a /\ r_hts b = r_hts a /\ r_kept b = r_kept a /\
    same_journals None (c_files (r_c a)) (c_files (r_c b)).
  Proof.
    unfold commit_rj. destruct (commitm o _ (r_c a)) as [[cs rec]|e] eqn:E1; cbn [obind]; [|discriminate].
    intros E; injection E as <-. cbn [r_seq r_mdb r_hts r_kept r_c fst]. repeat split; try reflexivity.
    exact (commit_files _ _ _ _ _ E1).
  Qed.

  Lemma jfile_ok_same ck fs fs' jd e : jfile_ok ck fs jd -> same_journals e fs fs' -> e <> Some (jd_num jd) ->
    jfile_ok ck fs' jd.
  Proof.
    intros (Hb & d & Ed & Hc) J Hne. split; [exact Hb|]. exists d. split; [|exact Hc]. rewrite (J _ Hne). exact Ed.
  Qed.

  (* what recoverJournal does before it replays journal j when another was replayed before it: flush the buffer if it
     holds anything, commit, remove the previous journal *)
  Definition rj_pre (o : oopts) (j : N) (ofd : option N) (st : rj) : ores rj :=
    match ofd with
    | None => OOk st
    | Some old =>
        odo a <- (if (0 <? MemDB.mdb_len (r_mdb st))%Z then flushm st else OOk st);
        odo b <- commitrj o j a;
        OOk (remove_file (SW.FJournal, old) (set_rec b (SR.reset_added rp (r_rec b))))
    end.

  Lemma rj_pre_facts o j ofd st st1 : rj_pre o j ofd st = OOk st1 ->
    r_seq st1 = r_seq st /\ r_mdb st1 = r_mdb st /\ r_hts st1 = r_hts st /\ r_kept st1 = r_kept st /\
    same_journals ofd (c_files (r_c st)) (c_files (r_c st1)).
  Proof.
    unfold rj_pre. destruct ofd as [old|];
      [|intros E; injection E as <-; repeat split].
    destruct (if (0 <? MemDB.mdb_len (r_mdb st))%Z then flushm st else OOk st) as [a|e] eqn:Ea; cbn [obind]; [|discriminate].
    assert (A : r_seq a = r_seq st /\ r_mdb a = r_mdb st /\ r_hts a = r_hts st /\ r_kept a = r_kept st /\
                same_journals None (c_files (r_c st)) (c_files (r_c a))).
    { destruct (0 <? MemDB.mdb_len (r_mdb st))%Z;
        [exact (flush_memdb_facts rp kp mp tp tcrc compress snappy fgen blockSize ri c _ _ Ea)|].
      injection Ea as <-. repeat split. }
    destruct A as (A1 & A2 & A3 & A4 & A5).
    destruct (commitrj o j a) as [b|e] eqn:Eb; cbn [obind]; [|discriminate].
    destruct (commit_rj_facts _ _ _ _ Eb) as (B1 & B2 & B3 & B4 & B5).
    intros E. injection E as <-. unfold remove_file, set_rec. cbn [r_c r_rec r_seq r_mdb r_hts r_kept c_files].
    split; [congruence|]. split; [congruence|]. split; [congruence|]. split; [congruence|].
    eapply OpenJournalProofs.same_journals_trans; [exact (OpenJournalProofs.same_journals_trans None _ _ _ A5 B5)|].
    apply OpenJournalProofs.same_journals_del_journal.
  Qed.

  (* the journals still to be replayed stay as they are while journal j is replayed after ofd *)
  Lemma jfiles_after_step ck sel ofd j fs fs1 fs2 :
    Forall (jfile_ok ck fs) sel -> same_journals ofd fs fs1 -> same_journals None fs1 fs2 ->
    NoDup (olist ofd ++ j :: map jd_num sel) ->
    Forall (jfile_ok ck fs2) sel /\ NoDup (olist (Some j) ++ map jd_num sel).
  Proof.
    intros Hsel J1 J2 Hnd. split.
    - apply Forall_forall. intros x Hx. rewrite Forall_forall in Hsel.
      apply (jfile_ok_same ck fs1 _ x None); [|exact J2|discriminate].
      apply (jfile_ok_same ck fs _ x ofd); [exact (Hsel x Hx)|exact J1|].
      intros E. subst ofd. cbn [olist app] in Hnd. inversion Hnd as [|? ? Hni _]; subst.
      apply Hni. right. apply in_map. exact Hx.
    - destruct ofd; cbn [olist app] in Hnd |- *; [inversion Hnd; assumption|exact Hnd].
  Qed.

  (* the loop of recoverJournal over written journals: whenever it gets through, it kept what the sequence rule
     accepts of the prefixes a crash left *)
  Lemma loop_rw_written o sel : oo_strict_j o = false -> forall ofd st st' ofd',
    Forall (jfile_ok (oo_jck o) (c_files (r_c st))) sel -> NoDup (olist ofd ++ map jd_num sel) -> minv st ->
    loop_rw o (map jd_num sel) ofd st = OOk (st', ofd') ->
    exists bss, kept_prefixes sel bss /\ minv st' /\
      r_seq st' = snd (accepted (concat bss) (r_seq st)) /\
      r_kept st' = r_kept st ++ map jb_pair (fst (accepted (concat bss) (r_seq st))).
  Proof.
    intros Hns. induction sel as [|jd sel IH]; intros ofd st st' ofd' Hsel Hnd Hinv.
    - cbn [map rj_loop]. intros E. injection E as <- _. exists []. split; [constructor|].
      cbn [concat accepted fst snd map]. rewrite app_nil_r. split; [exact Hinv|]. split; reflexivity.
    - inversion Hsel as [|? ? Hjd Hrest]; subst. destruct Hjd as (Hbs & d & Ed & Hcb).
      destruct (crash_file_records jcrc jp jpok (oo_jck o) _ _ _ Hcb) as (k & Hk & Erecs).
      cbn [map rj_loop]. unfold journal_bytes at 1. rewrite Ed.
      set (pre := match ofd with None => OOk st | Some old => _ end).
      destruct pre as [st1|e] eqn:Epre; cbn [obind]; [|discriminate].
      destruct (rj_pre_facts o (jd_num jd) ofd st st1 Epre) as (Es1 & Em1 & Eh1 & Ek1 & J1).
      assert (Hinv1 : minv st1) by (unfold OpenJournalProofs.mem_inv in *; rewrite Es1, Em1, Eh1; exact Hinv).
      destruct (OpenJournalProofs.reset_mem_inv kp seek_val mp mpok c st1 Hinv1) as (d0 & Er & _ & Hinv1').
      rewrite Er. cbn [of_mres obind]. rewrite Hns.
      rewrite (replay_outcomes_recs rp kp mp tp tcrc compress snappy fgen blockSize ri c o true (jd_num jd) _
                 (jread_tolerant_clean jcrc jp jpok (oo_jck o) d)).
      rewrite Erecs, firstn_map.
      destruct (replay_recs rp kp mp tp tcrc compress snappy fgen blockSize ri c o true (jd_num jd) _ (set_mdb st1 d0))
        as [st2|e] eqn:E2; cbn [obind]; [|discriminate].
      intros Eloop.
      assert (Hbk : Forall jb_ok (firstn k (jd_bs jd))).
      { apply FileStorageCrashProofs.Forall_firstn'. exact Hbs. }
      destruct (replay_recs_written_rw rp kp kpok seek_val mp mpok tp tcrc compress snappy fgen blockSize ri c cok
                  o (jd_num jd) _ Hns Hbk _ _ Hinv1' E2) as (Hinv2 & J2 & Es2 & Ek2).
      unfold set_mdb in Es2, Ek2, J2. cbn [r_seq r_kept r_c] in Es2, Ek2, J2.
      destruct (jfiles_after_step _ _ _ _ _ _ _ Hrest J1 J2 Hnd) as (Hsel2 & Hnd').
      destruct (IH _ _ _ _ Hsel2 Hnd' Hinv2 Eloop) as (bss & Hp & Hinv' & Es' & Ek').
      exists (firstn k (jd_bs jd) :: bss). split.
      { constructor; [exists k; split; [exact Hk|reflexivity]|exact Hp]. }
      split; [exact Hinv'|]. cbn [concat]. rewrite accepted_app. cbn [fst snd].
      rewrite <- Es1, <- Es2. split; [exact Es'|].
      rewrite Ek', Ek2, Ek1, map_app, app_assoc. reflexivity.
  Qed.

  Lemma remove_all_facts rem : forall st,
    r_seq (remove_all rem st) = r_seq st /\ r_kept (remove_all rem st) = r_kept st /\
    r_mdb (remove_all rem st) = r_mdb st /\ c_sess (r_c (remove_all rem st)) = c_sess (r_c st).
  Proof.
    induction rem as [|x rem IH]; intros st; cbn [remove_all]; [repeat split; reflexivity|].
    destruct (IH (remove_file x st)) as (A & B & C & D). rewrite A, B, C, D. repeat split; reflexivity.
  Qed.

  (* Open, read-write, on a crash image: WHENEVER it returns a DB, that DB's sequence number and the batches it
     kept are what the sequence rule accepts of the journal prefixes the crash left, and its buffer is empty
     (everything kept sits in tables).  That it does return a DB is Store/OpenTotalProofs.v open_rw_total. *)
  Theorem open_rw_written o hts img m mrecs ks js r :
    oo_strict_man o = false -> oo_strict_j o = false -> oo_ro o = false -> oo_err_exist o = false ->
    heights_okl mp hts -> image_ok o img m mrecs ks js -> manifest_ok o mrecs ks -> NoDup (map jd_num js) ->
    openb o hts img = OOk r ->
    exists k j pj nf q live cps bss d,
      (ks <= k)%nat /\
      replay_result rp (oo_cmp_name o) (firstn k (map fst mrecs)) = SpecOk j pj nf q live cps /\
      kept_prefixes (selected j pj js) bss /\
      os_seq r = snd (accepted (concat bss) q) /\
      os_kept r = map jb_pair (fst (accepted (concat bss) q)) /\
      bs_mem (os_bs r) = Some d /\ mem_entries mp (Some d) = [] /\ bs_frozen (os_bs r) = None.
  Proof.
    intros Hsm Hsj Hro Hee Hh Himg Hman Hnd.
    destruct (open_recovered o hts img m mrecs ks js Hsm Hee Hh Himg Hman)
      as (k & j & pj & nf & q & live & cps & s & lv & d0 & Hk & Espec & _ & _ & Eq & _ & _ & Enew & Hent0 & Hinv0 & Esel & Hsel & ->).
    rewrite Hro. unfold open_rw. cbn [c_sess c_files c_meta c_removed c_commits]. rewrite Enew. cbn [of_mres obind].
    rewrite Esel, Eq.
    set (cs1 := match map jd_num (selected j pj js) with [] => _ | _ :: _ => _ end).
    assert (Ecs1 : c_files cs1 = si_files img) by (unfold cs1; destruct (map jd_num (selected j pj js)); reflexivity).
    set (st0 := mkRJ cs1 SR.sr_empty q d0 hts []).
    rewrite <- Ecs1 in Hsel.
    assert (Hnd0 : NoDup (olist None ++ map jd_num (selected j pj js))) by exact (ListLemmas.NoDup_map_filter jd_num _ js Hnd).
    destruct (loop_rw o (map jd_num (selected j pj js)) None st0) as [[st1 ofd]|e] eqn:El; cbn [obind]; [|discriminate].
    destruct (loop_rw_written o _ Hsj None st0 st1 ofd Hsel Hnd0 (Hinv0 cs1) El) as (bss & Hp & Hinv1 & Es1 & Ek1).
    cbn [st0 r_seq r_kept app] in Es1, Ek1.
    (* flush of the last buffer *)
    set (fl := match map jd_num (selected j pj js) with [] => OOk st1 | _ :: _ => _ end).
    destruct fl as [st2|e] eqn:Efl; cbn [obind]; [|discriminate].
    assert (F2 : r_seq st2 = r_seq st1 /\ r_kept st2 = r_kept st1).
    { unfold fl in Efl. destruct (map jd_num (selected j pj js)); [injection Efl as <-; split; reflexivity|].
      destruct (0 <? MemDB.mdb_len (r_mdb st1))%Z; [|injection Efl as <-; split; reflexivity].
      destruct (flush_memdb_facts rp kp mp tp tcrc compress snappy fgen blockSize ri c _ _ Efl) as (A1 & _ & _ & A4 & _).
      split; assumption. }
    destruct F2 as (Fs2 & Fk2).
    destruct (commitrj o _ _) as [st4|e] eqn:Ec; cbn [obind]; [|discriminate].
    destruct (commit_rj_facts _ _ _ _ Ec) as (C1 & _ & _ & C4 & _). cbn [r_seq r_kept] in C1, C4.
    set (st5 := match ofd with Some old => remove_file _ st4 | None => st4 end).
    assert (F5 : r_seq st5 = r_seq st4 /\ r_kept st5 = r_kept st4) by (unfold st5; destruct ofd; split; reflexivity).
    destruct F5 as (Fs5 & Fk5).
    destruct (SW.janitor _ _) as [ts|rem]; [discriminate|].
    intros E. injection E as <-. cbn [os_seq os_kept os_bs bs_mem bs_frozen].
    destruct (remove_all_facts rem st5) as (R1 & R2 & _ & _).
    exists k, j, pj, nf, q, live, cps, bss, d0.
    split; [exact Hk|]. split; [exact Espec|]. split; [exact Hp|].
    split; [rewrite R1, Fs5, C1, Fs2; exact Es1|]. split; [rewrite R2, Fk5, C4, Fk2; exact Ek1|].
    split; [reflexivity|]. split; [exact Hent0|reflexivity].
  Qed.

  Theorem open_ro_leaves_image o hts img r : oo_ro o = true -> openb o hts img = OOk r ->
    os_image r = img /\ os_removed r = [] /\ os_commits r = [] /\ os_journal r = None.
  Proof.
    intros Hro. unfold open_bytes. rewrite Hro.
    destruct (manifest_of img) as [[m d]|].
    - destruct (OpenPath.session_recover jcrc jp rp c o m d) as [s|e]; cbn [obind]; [|discriminate].
      destruct (oo_err_exist o); cbn [obind]; [discriminate|].
      unfold open_ro. cbn [c_sess c_files c_meta].
      destruct (of_mres (MemDB.mdb_new mp)) as [d0|e]; cbn [obind]; [|discriminate].
      destruct (loop_ro o _ _) as [st|e]; cbn [obind]; [|discriminate].
      intros E. injection E as <-. cbn [os_image os_removed os_commits os_journal].
      destruct img; repeat split; reflexivity.
    - destruct (si_files img); [|discriminate]. rewrite orb_true_r. cbn [obind]. discriminate.
  Qed.

  (* hence opening what a read-only Open left is opening the same image again *)
  Corollary open_ro_idempotent o hts img r : oo_ro o = true -> openb o hts img = OOk r ->
    openb o hts (os_image r) = OOk r.
  Proof. intros Hro E. destruct (open_ro_leaves_image o hts img r Hro E) as (-> & _). exact E. Qed.
End OpenProofs.

(* GetMeta's answer does not depend on the mode (only its repair does), so a directory is seen by Open as the
   abstract image whose meta pointer is get_meta_result — the function C04_setmeta_crash_atomic and the other
   theorems of Props/C04FS.v are about. *)
Lemma get_meta_fst ro v : fst (FS.get_meta ro v) = FS.get_meta_result v.
Proof.
  unfold FS.get_meta, FS.get_meta_result, FS.get_meta_ops.
  destruct (FS.g_chosen (FS.get_meta_choice v)) as [[name x]|]; reflexivity.
Qed.

Lemma dir_image_of_meta ro v x : FS.get_meta_result v = FS.GOk x ->
  dir_image ro v = DImage (mkSI (Some (Z.to_N (FS.fd_num x))) (dir_files v)).
Proof. intros E. unfold dir_image. rewrite get_meta_fst, E. reflexivity. Qed.

(* hence, while setMeta(B) is in progress on a directory settled on A, every crash image opens as the files of
   the directory under the meta pointer A or under the meta pointer B — never a third pointer, never "corrupted" *)
Theorem open_dir_setmeta_crash jcrc jp rp kp bhl mp tp tcrc compress snappy fgen blockSize ri c o hts
    s A B K i0 k v :
  FileStorageCrashProofs.clean s A A K i0 -> In (FS.gen_name A) K -> In (FS.gen_name B) K ->
  (FS.fd_num A < FS.fd_num B)%Z -> FS.int64_ok (FS.fd_num A) = true -> FS.int64_ok (FS.fd_num B) = true ->
  FS.crash_image (FS.fapply_all s (firstn k (FS.set_meta_ops (FS.vol_view s) B))) v ->
  let ob := open_bytes jcrc jp rp kp bhl mp tp tcrc compress snappy fgen blockSize ri c o hts in
  open_dir jcrc jp rp kp bhl mp tp tcrc compress snappy fgen blockSize ri c o hts v =
    ob (mkSI (Some (Z.to_N (FS.fd_num A))) (dir_files v)) \/
  open_dir jcrc jp rp kp bhl mp tp tcrc compress snappy fgen blockSize ri c o hts v =
    ob (mkSI (Some (Z.to_N (FS.fd_num B))) (dir_files v)).
Proof.
  intros Hc HA HB Hlt IA IB Hcr ob.
  destruct (FileStorageCrashProofs.set_meta_crash_atomic s A B K i0 Hc HA HB Hlt IA IB) as (H & _).
  unfold open_dir. destruct (H k v Hcr) as [E|E]; [left|right]; rewrite (dir_image_of_meta _ _ _ E); reflexivity.
Qed.

