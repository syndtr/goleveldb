(* Store/FileStorageCrashProofs.v — a crash at any point of a manifest switch (setMeta), of a chain of
   switches with other files' operations in between, or of the repair inside a read-write GetMeta leaves a directory
   on which GetMeta answers the old or the new manifest; witnesses for what lies outside the invariant.
   Model: Store/FileStorage.v section 4. *)
From Coq Require Import List NArith ZArith Bool Lia.
From GL Require Import Base.Bytes Base.BytesProofs Store.FileStorage Store.FileStorageProofs.
Import ListNotations.
Open Scope N_scope.

Lemma plain_digits l : digits_ok l -> Forall plain l.
Proof. unfold digits_ok. apply Forall_impl. intros b H. now apply digit_plain. Qed.

Lemma fmt_d06_plain z : Forall plain (fmt_d06 z).
Proof.
  unfold fmt_d06. destruct (z <? 0)%Z.
  - constructor; [unfold plain; lia|]. destruct (dec_spec (Z.to_N (- z))) as (ds & -> & Hok & Hne & _).
    apply plain_digits. now apply pad0_spec.
  - destruct (dec_spec (Z.to_N z)) as (ds & -> & Hok & Hne & _). apply plain_digits. now apply pad0_spec.
Qed.

Lemma gen_name_plain fd : Forall plain (gen_name fd).
Proof.
  unfold gen_name. destruct (fd_type fd); apply Forall_app; split; try apply fmt_d06_plain;
    repeat constructor; unfold plain; lia.
Qed.

Lemma Forall_firstn' {A} (P : A -> Prop) k : forall l, Forall P l -> Forall P (firstn k l).
Proof. induction k; intros l H; [constructor|]. destruct l; [constructor|]. inversion H; subst. cbn. constructor; auto. Qed.

Lemma check_content_last l fd : check_content l = Some fd -> exists r, l = r ++ [10].
Proof.
  unfold check_content. destruct (rev l) as [|c r] eqn:E; [discriminate|].
  destruct (c =? 10) eqn:C; [|discriminate]. apply N.eqb_eq in C. subst c. intros _.
  exists (rev r). rewrite <- (rev_involutive l), E. reflexivity.
Qed.

(* a prefix of what setMeta writes is either the whole content or rejected *)
Lemma check_prefix fd k fd' : int64_ok (fd_num fd) = true ->
  check_content (firstn k (meta_content fd)) = Some fd' -> fd' = fd.
Proof.
  intros Hi H. unfold meta_content in *.
  destruct (Nat.le_gt_cases (length (gen_name fd) + 1) k) as [Hk|Hk].
  - rewrite firstn_all2 in H by (rewrite app_length; cbn; lia).
    fold (meta_content fd) in H. rewrite check_meta_content in H by assumption. congruence.
  - exfalso. rewrite firstn_app in H. replace (k - length (gen_name fd))%nat with 0%nat in H by lia.
    cbn [firstn] in H. rewrite app_nil_r in H. destruct (check_content_last _ _ H) as (r & E).
    pose proof (gen_name_plain fd) as P. apply (Forall_firstn' _ k) in P. rewrite E in P.
    apply Forall_app in P. destruct P as [_ P]. inversion P; subst. unfold plain in *. lia.
Qed.

Lemma check_nil : check_content [] = None.
Proof. reflexivity. Qed.

Lemma has_lookup {A} (v : list (bytes * A)) n : has v n = true <-> lookup v n <> None.
Proof. unfold has. destruct (lookup v n); split; congruence. Qed.

(* If CURRENT holds what setMeta wrote for A or for B, both files exist, and every pending file that validates
   names B or something not newer than A, then GetMeta answers A or B. *)
Lemma get_meta_window v A B :
  (fd_num A <= fd_num B)%Z -> int64_ok (fd_num A) = true -> int64_ok (fd_num B) = true ->
  (lookup v s_CURRENT = Some (meta_content A) \/ lookup v s_CURRENT = Some (meta_content B)) ->
  has v (gen_name A) = true -> has v (gen_name B) = true ->
  (forall q c fd, In q (pend_names v) -> lookup v q = Some c -> check_content c = Some fd ->
                  fd = B \/ (fd_num fd <= fd_num A)%Z) ->
  get_meta_result v = GOk A \/ get_meta_result v = GOk B.
Proof.
  intros Hle HiA HiB Hcur HA HB Hpend.
  assert (exists X, (X = A \/ X = B) /\ tc_cur (try_currents v [s_CURRENT; s_CURRENT_bak] false false) = Some (s_CURRENT, X)) as (X & HX & Hc).
  { destruct Hcur as [Hc|Hc]; [exists A|exists B]; (split; [auto|]); cbn [try_currents]; unfold try_current at 1;
      rewrite Hc, check_meta_content by assumption; [rewrite HA|rewrite HB]; reflexivity. }
  unfold get_meta_result. rewrite get_meta_ops_unfold. unfold get_meta_choice. cbn [g_chosen]. rewrite Hc.
  destruct (tc_cur (try_currents v (pend_names v) false false)) as [[pn pfd]|] eqn:Ep.
  - apply try_currents_some in Ep. destruct Ep as [Hin Hok].
    destruct (try_current_ok _ _ _ Hok) as (c & Hl & Hch & _).
    destruct (Hpend _ _ _ Hin Hl Hch) as [->|Hn].
    + destruct (fd_num B >? fd_num X)%Z; cbn [fst]; [now right|]. destruct HX as [-> | ->]; auto.
    + assert ((fd_num pfd >? fd_num X)%Z = false) as ->.
      { rewrite Z.gtb_ltb. apply Z.ltb_ge. destruct HX as [-> | ->]; lia. }
      cbn [fst]. destruct HX as [-> | ->]; auto.
  - cbn [fst]. destruct HX as [-> | ->]; auto.
Qed.

Lemma get_set_ino t i x j : get_ino (set_ino t i x) j = if i =? j then x else get_ino t j.
Proof.
  induction t as [|[k y] t IH]; cbn [set_ino get_ino].
  - destruct (i =? j); reflexivity.
  - destruct (k =? i) eqn:E.
    + apply N.eqb_eq in E. subst k. cbn [get_ino]. destruct (i =? j); reflexivity.
    + cbn [get_ino]. rewrite IH. destruct (k =? j) eqn:E2; [|reflexivity].
      apply N.eqb_eq in E2. subst k. now rewrite N.eqb_sym, E.
Qed.

Lemma image_ents_app ops1 : forall mask ops2 e,
  image_ents mask (ops1 ++ ops2) e =
  image_ents (skipn (length ops1) mask) ops2 (image_ents (firstn (length ops1) mask) ops1 e) \/
  (length mask < length ops1)%nat /\ image_ents mask (ops1 ++ ops2) e = image_ents mask ops1 e.
Proof.
  induction ops1 as [|o ops1 IH]; intros mask ops2 e.
  - left. reflexivity.
  - cbn [app image_ents length]. destruct mask as [|b mask].
    + right. split; [cbn; lia|reflexivity].
    + cbn [skipn firstn image_ents]. destruct (IH mask ops2 (if b then dapply e o else e)) as [H|[H1 H2]].
      * left. exact H.
      * right. split; [cbn; lia|exact H2].
Qed.

Lemma image_ents_nil_mask ops e : image_ents [] ops e = e.
Proof. destruct ops; reflexivity. Qed.

(* a crash image of ops1 ++ ops2 is an image of ops1 followed by a sub-selection of ops2 *)
Lemma image_ents_split ops1 ops2 mask e :
  exists m1 m2, image_ents mask (ops1 ++ ops2) e = image_ents m2 ops2 (image_ents m1 ops1 e).
Proof.
  destruct (image_ents_app ops1 mask ops2 e) as [H|[_ H]].
  - eauto.
  - exists mask, []. now rewrite image_ents_nil_mask.
Qed.

Lemma lookup_view_of t e f n : lookup (view_of t e f) n = option_map (fun i => f (get_ino t i)) (lookup e n).
Proof.
  unfold view_of. induction e as [|[k i] e IH]; cbn [map lookup fst snd]; [reflexivity|].
  destruct (beq k n); [reflexivity|exact IH].
Qed.

Lemma lookup_image_view mask sel s n :
  lookup (image_view mask sel s) n =
  option_map (fun i => crash_data (sel i) (get_ino (inos s) i)) (lookup (image_ents mask (pdir s) (dents s)) n).
Proof.
  unfold image_view. induction (image_ents mask (pdir s) (dents s)) as [|[k i] e IH]; cbn [map lookup fst snd]; [reflexivity|].
  destruct (beq k n); [reflexivity|exact IH].
Qed.

Lemma has_image_view mask sel s n : has (image_view mask sel s) n = has (image_ents mask (pdir s) (dents s)) n.
Proof. unfold has. rewrite lookup_image_view. destruct (lookup _ n); reflexivity. Qed.

Definition famc (n : bytes) : Prop := n = s_CURRENT \/ n = s_CURRENT_bak \/ exists z, n = pend_name z.

(* a file content that GetMeta either rejects or reads as B or as something not newer than A *)
Definition harmless (A B : fdesc) (c : bytes) : Prop :=
  forall fd, check_content c = Some fd -> fd = B \/ (fd_num fd <= fd_num A)%Z.

Definition pend_ino (A B : fdesc) (x : inode) : Prop :=
  (forall sel, harmless A B (crash_data sel x)) /\ harmless A B (vdata x).

(* pending directory operations the invariant tolerates: anything on other files as long as the files in K stay;
   on the CURRENT family: a new CURRENT.bak, a new pending file with harmless content, unlinks (not of CURRENT) *)
Definition okop (A B : fdesc) (K : list bytes) (t : list (N * inode)) (o : dop) : Prop :=
  match o with
  | DLink n i => n <> s_CURRENT /\ (forall z, n = pend_name z -> pend_ino A B (get_ino t i))
  | DRename a b i => ~ famc a /\ ~ famc b /\ ~ In a K
  | DUnlink n => n <> s_CURRENT /\ ~ In n K
  end.

(* A directory settled on A or switching from A to B.  [i0] is the inode of CURRENT, the same in the running and in
   the durable directory, its content A's and synced; the files named in K exist; pending files and pending directory
   operations cannot make GetMeta answer anything but A or B. *)
Record clean (s : fsys) (A B : fdesc) (K : list bytes) (i0 : N) : Prop := {
  k_inj : forall n m i, lookup (ents s) n = Some i -> lookup (ents s) m = Some i -> n = m;
  k_bnd_e : forall n i, lookup (ents s) n = Some i -> i < next s;
  k_bnd_d : forall n i, lookup (dents s) n = Some i -> i < next s;
  k_bnd_p : forall n i, In (DLink n i) (pdir s) -> i < next s;
  k_sep : forall n i, (forall z, n <> pend_name z) -> lookup (ents s) n = Some i ->
            (forall z, lookup (dents s) (pend_name z) <> Some i) /\ (forall z, ~ In (DLink (pend_name z) i) (pdir s));
  k_ops : Forall (okop A B K (inos s)) (pdir s);
  k_cur_e : lookup (ents s) s_CURRENT = Some i0;
  k_cur_d : lookup (dents s) s_CURRENT = Some i0;
  k_cur_i : get_ino (inos s) i0 = IN (meta_content A) (meta_content A) false;
  k_keep : forall k, In k K -> has (dents s) k = true;
  k_keep_e : forall k, In k K -> has (ents s) k = true;
  k_Knf : forall k, In k K -> ~ famc k;
  k_pend_d : forall z i, lookup (dents s) (pend_name z) = Some i -> pend_ino A B (get_ino (inos s) i);
  k_pend_e : forall z i, lookup (ents s) (pend_name z) = Some i -> pend_ino A B (get_ino (inos s) i) }.

(* what every crash image must satisfy for GetMeta to answer A or B *)
Definition good (s : fsys) (A B : fdesc) (K : list bytes) : Prop :=
  forall mask, let e := image_ents mask (pdir s) (dents s) in
    (exists i, lookup e s_CURRENT = Some i /\
               forall sel, crash_data sel (get_ino (inos s) i) = meta_content A \/
                           crash_data sel (get_ino (inos s) i) = meta_content B) /\
    (forall k, In k K -> has e k = true) /\
    forall z i, lookup e (pend_name z) = Some i -> pend_ino A B (get_ino (inos s) i).

Theorem good_images s A B K v :
  good s A B K -> In (gen_name A) K -> In (gen_name B) K ->
  (fd_num A <= fd_num B)%Z -> int64_ok (fd_num A) = true -> int64_ok (fd_num B) = true ->
  crash_image s v -> get_meta_result v = GOk A \/ get_meta_result v = GOk B.
Proof.
  intros G HKA HKB Hle HA HB (mask & sel & ->). destruct (G mask) as ((i & Hi & Hd) & Hk & Hp).
  apply get_meta_window; try assumption.
  - rewrite lookup_image_view, Hi. cbn [option_map]. destruct (Hd (sel i)) as [-> | ->]; auto.
  - rewrite has_image_view. auto.
  - rewrite has_image_view. auto.
  - intros q c fd Hq Hl Hc. apply in_pend_names in Hq. destruct Hq as (n & z & _ & _ & ->).
    rewrite lookup_image_view in Hl. destruct (lookup (image_ents mask (pdir s) (dents s)) (pend_name z)) as [j|] eqn:E; [|discriminate].
    cbn [option_map] in Hl. inversion Hl; subst c. exact (proj1 (Hp z j E) (sel j) fd Hc).
Qed.

Lemma synced_data c sel : crash_data sel (IN c c false) = c.
Proof.
  unfold crash_data. destruct sel as [k|]; [|reflexivity]. cbn [itrunc ddata vdata orb].
  destruct (length c <=? k)%nat eqn:E; [|reflexivity]. apply Nat.leb_le in E. now apply firstn_all2.
Qed.

Lemma pend_name_not_famc_names z : pend_name z <> s_CURRENT /\ pend_name z <> s_CURRENT_bak.
Proof. split; [apply pend_name_not_current|apply pend_name_not_bak]. Qed.

(* what survives any sub-selection of tolerated directory operations *)
Definition Jinv (A B : fdesc) (K : list bytes) (t : list (N * inode)) (i0 : N) (e : list (bytes * N)) : Prop :=
  lookup e s_CURRENT = Some i0 /\ (forall k, In k K -> has e k = true) /\
  (forall z i, lookup e (pend_name z) = Some i -> pend_ino A B (get_ino t i)).

Lemma Jinv_step A B K t i0 e o : Jinv A B K t i0 e -> okop A B K t o -> Jinv A B K t i0 (dapply e o).
Proof.
  intros (Hc & Hk & Hp) Ho. destruct o as [n i|a b i|n]; cbn [dapply okop] in *.
  - destruct Ho as [Hn Hz]. split; [|split].
    + rewrite lookup_set_at, beq_neq by assumption. exact Hc.
    + intros k Hin. apply has_lookup. rewrite lookup_set_at. destruct (beq n k); [discriminate|]. apply has_lookup. auto.
    + intros z j. rewrite lookup_set_at. beq_case n (pend_name z).
      * intro H. inversion H; subst. now apply (Hz z).
      * apply Hp.
  - destruct Ho as (Ha & Hb & HK). split; [|split].
    + rewrite lookup_set_at, lookup_remove_at. rewrite (beq_neq b s_CURRENT), (beq_neq a s_CURRENT); [exact Hc| |];
        intro X; [apply Ha|apply Hb]; left; assumption.
    + intros k Hin. apply has_lookup. rewrite lookup_set_at, lookup_remove_at. destruct (beq b k); [discriminate|].
      rewrite (beq_neq a k) by (intro X; subst; contradiction). apply has_lookup. auto.
    + intros z j. rewrite lookup_set_at, lookup_remove_at.
      rewrite (beq_neq b (pend_name z)), (beq_neq a (pend_name z)); [apply Hp| |];
        intro X; [apply Ha|apply Hb]; right; right; eauto.
  - destruct Ho as [Hn HK]. split; [|split].
    + rewrite lookup_remove_at, beq_neq by assumption. exact Hc.
    + intros k Hin. apply has_lookup. rewrite lookup_remove_at, (beq_neq n k) by (intro X; subst; contradiction).
      apply has_lookup. auto.
    + intros z j. rewrite lookup_remove_at. destruct (beq n (pend_name z)); [discriminate|apply Hp].
Qed.

Lemma Jinv_image A B K t i0 ops : forall mask e,
  Forall (okop A B K t) ops -> Jinv A B K t i0 e -> Jinv A B K t i0 (image_ents mask ops e).
Proof.
  induction ops as [|o ops IH]; intros mask e Hf J; [exact J|].
  inversion Hf; subst. cbn [image_ents]. destruct mask as [|b mask]; [exact J|].
  apply IH; [assumption|]. destruct b; [now apply Jinv_step|exact J].
Qed.

Lemma clean_Jinv s A B K i0 : clean s A B K i0 -> Jinv A B K (inos s) i0 (dents s).
Proof. intros C. split; [apply C|]. split; [apply C|apply C]. Qed.

Theorem clean_good s A B K i0 : clean s A B K i0 -> good s A B K.
Proof.
  intros C mask. cbn zeta.
  destruct (Jinv_image A B K (inos s) i0 (pdir s) mask (dents s) (k_ops _ _ _ _ _ C) (clean_Jinv _ _ _ _ _ C)) as (Hc & Hk & Hp).
  split; [|split; [exact Hk|exact Hp]].
  exists i0. split; [exact Hc|]. intro sel. left. rewrite (k_cur_i _ _ _ _ _ C). apply synced_data.
Qed.

(* The half of [clean] that speaks of the running directory [ents]: names bound one-to-one to inodes below the
   next one, and [Jinv].  When the directory is synced ([dents] = [ents], nothing pending) it is all of [clean]. *)
Definition eclean (e : list (bytes * N)) (t : list (N * inode)) (nx : N) (A B : fdesc) (K : list bytes) (i0 : N) : Prop :=
  (forall n m i, lookup e n = Some i -> lookup e m = Some i -> n = m) /\
  (forall n i, lookup e n = Some i -> i < nx) /\ Jinv A B K t i0 e.

Lemma clean_eclean s A B K i0 : clean s A B K i0 -> eclean (ents s) (inos s) (next s) A B K i0.
Proof. intros C. split; [apply C|]. split; [apply C|]. split; [apply C|]. split; apply C. Qed.

Lemma clean_settled e t nx A B K i0 :
  eclean e t nx A B K i0 -> get_ino t i0 = IN (meta_content A) (meta_content A) false ->
  (forall k, In k K -> ~ famc k) -> clean (FS e e [] t nx) A B K i0.
Proof.
  intros (Hinj & Hb & Hc & Hk & Hp) Hi Hnf. constructor; cbn [ents dents pdir inos next]; try assumption.
  - intros n i [].
  - intros n i Hn Hl. split; [|intros z []]. intros z Hz. apply (Hn z). exact (Hinj _ _ _ Hl Hz).
  - constructor.
Qed.

Ltac beq_case' a b := let E := fresh "E" in destruct (beq a b) eqn:E; [apply beq_eq in E|].

Lemma harmless_mono A B A' c : harmless A B c -> (fd_num A <= fd_num A')%Z -> harmless A' B c.
Proof. intros H Hle fd Hc. destruct (H fd Hc); [now left|right; lia]. Qed.

Lemma harmless_open A B c : harmless A A c -> harmless A B c.
Proof. intros H fd Hc. destruct (H fd Hc) as [->|]; right; lia. Qed.

Lemma harmless_nil A B : harmless A B [].
Proof. intros fd H. discriminate. Qed.

Lemma pend_ino_fresh A B : pend_ino A B (IN [] [] false).
Proof. split; [intros [k|]; cbn; [destruct k|]; apply harmless_nil|apply harmless_nil]. Qed.

Lemma pend_ino_trunc A B x : pend_ino A B x -> pend_ino A B (IN [] (ddata x) true).
Proof.
  intros [H _]. split; [|apply harmless_nil]. intros [k|]; cbn [crash_data itrunc ddata vdata orb].
  - rewrite firstn_nil. apply harmless_nil.
  - exact (H None).
Qed.

Lemma pend_ino_write A B x : pend_ino A B x -> vdata x = [] -> int64_ok (fd_num B) = true ->
  pend_ino A B (IN (vdata x ++ meta_content B) (ddata x) (itrunc x)).
Proof.
  intros [H _] Hv Hi. split.
  - intros [k|]; cbn [crash_data itrunc ddata vdata].
    + rewrite Hv. cbn [app]. destruct (itrunc x || (length (ddata x) <=? k)%nat).
      * intros fd Hc. left. now apply (check_prefix B k).
      * exact (H None).
    + exact (H None).
  - cbn [vdata]. rewrite Hv. cbn [app]. intros fd Hc. left. rewrite check_meta_content in Hc by assumption. congruence.
Qed.

Lemma pend_ino_synced A B : int64_ok (fd_num B) = true -> pend_ino A B (IN (meta_content B) (meta_content B) false).
Proof.
  intros Hi. split; [intros sel fd; rewrite synced_data|intro fd; cbn [vdata]];
    rewrite check_meta_content by assumption; intro H; left; congruence.
Qed.

Definition upd (s : fsys) (i : N) (x : inode) : fsys := FS (ents s) (dents s) (pdir s) (set_ino (inos s) i x) (next s).

Definition pending_related (s : fsys) (i : N) : Prop :=
  (exists z, lookup (dents s) (pend_name z) = Some i) \/ (exists z, In (DLink (pend_name z) i) (pdir s)) \/
  (exists z, lookup (ents s) (pend_name z) = Some i).

Lemma clean_upd s A B K i0 i x :
  clean s A B K i0 -> i <> i0 -> (pending_related s i -> pend_ino A B x) -> clean (upd s i x) A B K i0.
Proof.
  intros C Hi Hx. constructor; unfold upd; cbn [ents dents pdir inos next]; try apply C.
  - apply Forall_forall. intros o Ho. pose proof (proj1 (Forall_forall _ _) (k_ops _ _ _ _ _ C) o Ho) as Hok.
    destruct o as [n j|a b j|n]; cbn [okop] in *; [|exact Hok|exact Hok].
    destruct Hok as [H1 H2]. split; [exact H1|]. intros z ->. rewrite get_set_ino.
    destruct (i =? j) eqn:E; [|now apply (H2 z)]. apply N.eqb_eq in E. subst j.
    apply Hx. right. left. eauto.
  - rewrite get_set_ino. rewrite (proj2 (N.eqb_neq i i0) Hi). apply C.
  - intros z j Hl. rewrite get_set_ino. destruct (i =? j) eqn:E; [|now apply (k_pend_d _ _ _ _ _ C z)].
    apply N.eqb_eq in E. subst j. apply Hx. left. eauto.
  - intros z j Hl. rewrite get_set_ino. destruct (i =? j) eqn:E; [|now apply (k_pend_e _ _ _ _ _ C z)].
    apply N.eqb_eq in E. subst j. apply Hx. right. right. eauto.
Qed.

(* the inode of a name that is not a pending file is none of the pending-related ones *)
Lemma not_pending_related s A B K i0 n i :
  clean s A B K i0 -> (forall z, n <> pend_name z) -> lookup (ents s) n = Some i -> ~ pending_related s i.
Proof.
  intros C Hn Hl [(z & H)|[(z & H)|(z & H)]].
  - now apply (proj1 (k_sep _ _ _ _ _ C n i Hn Hl) z).
  - now apply (proj2 (k_sep _ _ _ _ _ C n i Hn Hl) z).
  - apply (Hn z). exact (k_inj _ _ _ _ _ C _ _ _ Hl H).
Qed.

Lemma not_pend_bak : forall z, s_CURRENT_bak <> pend_name z.
Proof. intros z H. symmetry in H. now apply pend_name_not_bak in H. Qed.

Lemma not_pend_current : forall z, s_CURRENT <> pend_name z.
Proof. intros z H. symmetry in H. now apply pend_name_not_current in H. Qed.

(* content operations on a file that is neither CURRENT nor a pending file *)
Lemma clean_upd_other s A B K i0 n i x :
  clean s A B K i0 -> n <> s_CURRENT -> (forall z, n <> pend_name z) -> lookup (ents s) n = Some i ->
  clean (upd s i x) A B K i0.
Proof.
  intros C Hn Hz Hl. apply clean_upd; [assumption| |].
  - intro E. subst i. apply Hn. exact (k_inj _ _ _ _ _ C _ _ _ Hl (k_cur_e _ _ _ _ _ C)).
  - intro P. exfalso. exact (not_pending_related _ _ _ _ _ _ _ C Hz Hl P).
Qed.

(* creation of a new name (anything but CURRENT) *)
Lemma clean_link_new s A B K i0 n :
  clean s A B K i0 -> n <> s_CURRENT -> lookup (ents s) n = None ->
  clean (fapply s (OCreate n)) A B K i0 /\ lookup (ents (fapply s (OCreate n))) n = Some (next s) /\
  get_ino (inos (fapply s (OCreate n))) (next s) = IN [] [] false.
Proof.
  intros C Hn Hl. cbn [fapply]. rewrite Hl.
  assert (forall j, j < next s -> get_ino (set_ino (inos s) (next s) (IN [] [] false)) j = get_ino (inos s) j) as Hold.
  { intros j Hj. rewrite get_set_ino. now rewrite (proj2 (N.eqb_neq (next s) j)) by lia. }
  split; [|split; [cbn [ents]; now rewrite lookup_set_at, beq_refl|cbn [inos]; now rewrite get_set_ino, N.eqb_refl]].
  constructor; cbn [ents dents pdir inos next].
  - intros a b i. rewrite !lookup_set_at. beq_case' n a; beq_case' n b; intros H1 H2; try congruence.
    + inversion H1; subst i. apply (k_bnd_e _ _ _ _ _ C) in H2. lia.
    + inversion H2; subst i. apply (k_bnd_e _ _ _ _ _ C) in H1. lia.
    + exact (k_inj _ _ _ _ _ C _ _ _ H1 H2).
  - intros a i. rewrite lookup_set_at. destruct (beq n a); intro H.
    + inversion H. lia.
    + apply (k_bnd_e _ _ _ _ _ C) in H. lia.
  - intros a i H. apply (k_bnd_d _ _ _ _ _ C) in H. lia.
  - intros a i H. apply in_app_or in H. destruct H as [H|[H|[]]].
    + apply (k_bnd_p _ _ _ _ _ C) in H. lia.
    + inversion H. lia.
  - intros a i Ha. rewrite lookup_set_at. beq_case' n a; intro H.
    + subst a. inversion H; subst i. split.
      * intros z Hd. apply (k_bnd_d _ _ _ _ _ C) in Hd. lia.
      * intros z Hin. apply in_app_or in Hin. destruct Hin as [Hin|[Hin|[]]].
        -- apply (k_bnd_p _ _ _ _ _ C) in Hin. lia.
        -- inversion Hin. now apply (Ha z).
    + destruct (k_sep _ _ _ _ _ C a i Ha H) as [S1 S2]. split; [exact S1|].
      intros z Hin. apply in_app_or in Hin. destruct Hin as [Hin|[Hin|[]]]; [now apply (S2 z)|].
      inversion Hin; subst. apply (k_bnd_e _ _ _ _ _ C) in H. lia.
  - apply Forall_app. split.
    + apply Forall_forall. intros o Ho. pose proof (proj1 (Forall_forall _ _) (k_ops _ _ _ _ _ C) o Ho) as Hok.
      destruct o as [m j|a b j|m]; cbn [okop] in *; [|exact Hok|exact Hok].
      destruct Hok as [H1 H2]. split; [exact H1|]. intros z Hz. rewrite Hold; [now apply (H2 z)|].
      exact (k_bnd_p _ _ _ _ _ C _ _ Ho).
    + constructor; [|constructor]. cbn [okop]. split; [assumption|]. intros z _.
      rewrite get_set_ino, N.eqb_refl. apply pend_ino_fresh.
  - rewrite lookup_set_at, beq_neq by assumption. apply C.
  - apply C.
  - rewrite Hold; [apply C|]. exact (k_bnd_e _ _ _ _ _ C _ _ (k_cur_e _ _ _ _ _ C)).
  - apply C.
  - intros k Hk. apply has_lookup. rewrite lookup_set_at. destruct (beq n k); [discriminate|].
    apply has_lookup. now apply (k_keep_e _ _ _ _ _ C).
  - apply C.
  - intros z i H. rewrite Hold; [now apply (k_pend_d _ _ _ _ _ C z)|]. exact (k_bnd_d _ _ _ _ _ C _ _ H).
  - intros z i. rewrite lookup_set_at. beq_case' n (pend_name z); intro H.
    + inversion H; subst i. rewrite get_set_ino, N.eqb_refl. apply pend_ino_fresh.
    + rewrite Hold; [now apply (k_pend_e _ _ _ _ _ C z)|]. exact (k_bnd_e _ _ _ _ _ C _ _ H).
Qed.

Lemma fapply_create_existing s n i : lookup (ents s) n = Some i ->
  fapply s (OCreate n) = upd s i (IN [] (ddata (get_ino (inos s) i)) true).
Proof. intro H. cbn [fapply]. now rewrite H. Qed.

Lemma fapply_write s n d i : lookup (ents s) n = Some i ->
  fapply s (OWrite n d) = upd s i (IN (vdata (get_ino (inos s) i) ++ d) (ddata (get_ino (inos s) i)) (itrunc (get_ino (inos s) i))).
Proof. intro H. cbn [fapply]. now rewrite H. Qed.

Lemma fapply_fsync s n i : lookup (ents s) n = Some i ->
  fapply s (OFsync n) = upd s i (IN (vdata (get_ino (inos s) i)) (vdata (get_ino (inos s) i)) false).
Proof. intro H. cbn [fapply]. now rewrite H. Qed.

Lemma bak_not_current : s_CURRENT_bak <> s_CURRENT.
Proof. unfold s_CURRENT_bak, s_CURRENT. congruence. Qed.

Lemma bak_create s A B K i0 : clean s A B K i0 ->
  clean (fapply s (OCreate s_CURRENT_bak)) A B K i0 /\ exists ib, lookup (ents (fapply s (OCreate s_CURRENT_bak))) s_CURRENT_bak = Some ib.
Proof.
  intro C. destruct (lookup (ents s) s_CURRENT_bak) as [i|] eqn:E.
  - rewrite (fapply_create_existing _ _ _ E). split; [|exists i; exact E].
    eapply clean_upd_other; [eassumption|apply bak_not_current|apply not_pend_bak|eassumption].
  - destruct (clean_link_new _ _ _ _ _ s_CURRENT_bak C) as (C' & Hl & _); [apply bak_not_current|assumption|]. eauto.
Qed.

Lemma bak_write s A B K i0 ib d : clean s A B K i0 -> lookup (ents s) s_CURRENT_bak = Some ib ->
  clean (fapply s (OWrite s_CURRENT_bak d)) A B K i0 /\ lookup (ents (fapply s (OWrite s_CURRENT_bak d))) s_CURRENT_bak = Some ib.
Proof.
  intros C E. rewrite (fapply_write _ _ _ _ E). split; [|exact E].
  eapply clean_upd_other; [eassumption|apply bak_not_current|apply not_pend_bak|eassumption].
Qed.

Lemma bak_fsync s A B K i0 ib : clean s A B K i0 -> lookup (ents s) s_CURRENT_bak = Some ib ->
  clean (fapply s (OFsync s_CURRENT_bak)) A B K i0 /\ lookup (ents (fapply s (OFsync s_CURRENT_bak))) s_CURRENT_bak = Some ib.
Proof.
  intros C E. rewrite (fapply_fsync _ _ _ E). split; [|exact E].
  eapply clean_upd_other; [eassumption|apply bak_not_current|apply not_pend_bak|eassumption].
Qed.

Lemma pend_not_i0 s A B K i0 z j : clean s A B K i0 -> lookup (ents s) (pend_name z) = Some j -> j <> i0.
Proof.
  intros C E X. subst j. pose proof (k_inj _ _ _ _ _ C _ _ _ E (k_cur_e _ _ _ _ _ C)) as H.
  now apply pend_name_not_current in H.
Qed.

Lemma p_create s A B K i0 z : clean s A B K i0 ->
  exists j, clean (fapply s (OCreate (pend_name z))) A B K i0 /\
            lookup (ents (fapply s (OCreate (pend_name z)))) (pend_name z) = Some j /\
            vdata (get_ino (inos (fapply s (OCreate (pend_name z)))) j) = [].
Proof.
  intro C. destruct (lookup (ents s) (pend_name z)) as [j|] eqn:E.
  - exists j. rewrite (fapply_create_existing _ _ _ E). split; [|split; [exact E|]].
    + apply clean_upd; [assumption|eapply pend_not_i0; eassumption|]. intros _.
      apply pend_ino_trunc. exact (k_pend_e _ _ _ _ _ C z j E).
    + unfold upd. cbn [inos]. now rewrite get_set_ino, N.eqb_refl.
  - exists (next s). destruct (clean_link_new _ _ _ _ _ (pend_name z) C) as (C' & Hl & Hi);
      [apply pend_name_not_current|assumption|]. split; [assumption|split; [assumption|]]. now rewrite Hi.
Qed.

Lemma p_write s A B K i0 z j : clean s A B K i0 -> int64_ok (fd_num B) = true ->
  lookup (ents s) (pend_name z) = Some j -> vdata (get_ino (inos s) j) = [] ->
  let s' := fapply s (OWrite (pend_name z) (meta_content B)) in
  clean s' A B K i0 /\ lookup (ents s') (pend_name z) = Some j /\ vdata (get_ino (inos s') j) = meta_content B.
Proof.
  intros C Hi E Hv. cbn zeta. rewrite (fapply_write _ _ _ _ E). split; [|split; [exact E|]].
  - apply clean_upd; [assumption|eapply pend_not_i0; eassumption|]. intros _.
    apply pend_ino_write; [exact (k_pend_e _ _ _ _ _ C z j E)|assumption|assumption].
  - unfold upd. cbn [inos]. rewrite get_set_ino, N.eqb_refl. cbn [vdata]. now rewrite Hv.
Qed.

Lemma p_fsync s A B K i0 z j : clean s A B K i0 -> int64_ok (fd_num B) = true ->
  lookup (ents s) (pend_name z) = Some j -> vdata (get_ino (inos s) j) = meta_content B ->
  let s' := fapply s (OFsync (pend_name z)) in
  clean s' A B K i0 /\ lookup (ents s') (pend_name z) = Some j /\
  get_ino (inos s') j = IN (meta_content B) (meta_content B) false.
Proof.
  intros C Hi E Hv. cbn zeta. rewrite (fapply_fsync _ _ _ E). split; [|split; [exact E|]].
  - apply clean_upd; [assumption|eapply pend_not_i0; eassumption|]. intros _. rewrite Hv. now apply pend_ino_synced.
  - unfold upd. cbn [inos]. rewrite get_set_ino, N.eqb_refl. now rewrite Hv.
Qed.

(* after the rename, before the directory is synced: CURRENT is the old or the new file *)
Lemma rename_good s A B K i0 z j :
  clean s A B K i0 ->
  lookup (ents s) (pend_name z) = Some j -> get_ino (inos s) j = IN (meta_content B) (meta_content B) false ->
  good (fapply s (ORename (pend_name z) s_CURRENT)) A B K.
Proof.
  intros C E Hj mask. cbn [fapply]. rewrite E. cbn [pdir dents inos]. cbn zeta.
  destruct (image_ents_split (pdir s) [DRename (pend_name z) s_CURRENT j] mask (dents s)) as (m1 & m2 & ->).
  destruct (Jinv_image A B K (inos s) i0 (pdir s) m1 (dents s) (k_ops _ _ _ _ _ C) (clean_Jinv _ _ _ _ _ C)) as (Hc & Hk & Hp).
  set (e := image_ents m1 (pdir s) (dents s)) in *.
  assert (forall sel, crash_data sel (get_ino (inos s) i0) = meta_content A) as Hd0
    by (intro sel; rewrite (k_cur_i _ _ _ _ _ C); apply synced_data).
  destruct m2 as [|[|] m2]; cbn [image_ents dapply].
  - split; [exists i0; split; [exact Hc|intro; left; apply Hd0]|]. auto.
  - split; [|split].
    + exists j. split; [now rewrite lookup_set_at, beq_refl|]. intro sel. right. rewrite Hj. apply synced_data.
    + intros k HK. apply has_lookup. rewrite lookup_set_at. destruct (beq s_CURRENT k); [discriminate|].
      rewrite lookup_remove_at, beq_neq; [apply has_lookup; auto|].
      intro X. apply (k_Knf _ _ _ _ _ C _ HK). right. right. eauto.
    + intros z' i. rewrite lookup_set_at, (beq_neq s_CURRENT (pend_name z')) by apply not_pend_current.
      rewrite lookup_remove_at. destruct (beq (pend_name z) (pend_name z')); [discriminate|]. apply Hp.
  - split; [exists i0; split; [exact Hc|intro; left; apply Hd0]|]. auto.
Qed.

Lemma rename_cases {A} (e : list (bytes * A)) a b x : lookup e a = Some x -> forall m i,
  lookup (rename_at e a b) m = Some i -> (m = b /\ i = x) \/ (m <> b /\ m <> a /\ lookup e m = Some i).
Proof.
  intros E m i. rewrite (lookup_rename_at _ _ _ _ _ E). beq_case' b m; [intro H; inversion H; auto|].
  beq_case' a m; [discriminate|]. intro H. right. repeat split; try assumption.
  - intro X. subst m. now rewrite beq_refl in E0.
  - intro X. subst m. now rewrite beq_refl in E1.
Qed.

Lemma rename_inj (e : list (bytes * N)) a b x : lookup e a = Some x ->
  (forall n m i, lookup e n = Some i -> lookup e m = Some i -> n = m) ->
  forall n m i, lookup (rename_at e a b) n = Some i -> lookup (rename_at e a b) m = Some i -> n = m.
Proof.
  intros E Hinj n m i Hn Hm. apply (rename_cases e a b x E) in Hn, Hm.
  destruct Hn as [[-> ->]|(N1 & N2 & N3)], Hm as [[-> Hm]|(M1 & M2 & M3)]; try reflexivity.
  - destruct (M2 (Hinj _ _ _ M3 E)).
  - subst i. destruct (N2 (Hinj _ _ _ N3 E)).
  - exact (Hinj _ _ _ N3 M3).
Qed.

Lemma pend_ino_settle A B x : pend_ino A B x -> (fd_num A <= fd_num B)%Z -> pend_ino B B x.
Proof.
  intros [H1 H2] Hle. split; [intro sel|].
  - eapply harmless_mono; [apply H1|assumption].
  - eapply harmless_mono; [apply H2|assumption].
Qed.

(* the directory sync at the end of setMeta settles on B *)
Lemma syncdir_clean s A B K i0 z j :
  clean s A B K i0 -> (fd_num A <= fd_num B)%Z ->
  lookup (ents s) (pend_name z) = Some j -> get_ino (inos s) j = IN (meta_content B) (meta_content B) false ->
  clean (fapply (fapply s (ORename (pend_name z) s_CURRENT)) OSyncDir) B B K j.
Proof.
  intros C Hle E Hj. cbn [fapply]. rewrite E. cbn [fapply ents dents pdir inos next].
  pose proof (rename_cases (ents s) (pend_name z) s_CURRENT j E) as Hr.
  apply clean_settled; [|exact Hj|apply C]. split; [apply (rename_inj _ _ _ _ E), C|]. split; [|split; [|split]].
  - intros m i H. apply Hr in H. destruct H as [[_ ->]|(_ & _ & H)]; eapply (k_bnd_e _ _ _ _ _ C); eassumption.
  - now rewrite (lookup_rename_at _ _ _ _ _ E), beq_refl.
  - intros k Hk. apply has_lookup. rewrite (lookup_rename_at _ _ _ _ _ E). destruct (beq s_CURRENT k); [discriminate|].
    rewrite beq_neq; [apply has_lookup; now apply (k_keep_e _ _ _ _ _ C)|].
    intro X. apply (k_Knf _ _ _ _ _ C _ Hk). right. right. eauto.
  - intros z' i H. apply Hr in H. destruct H as [[H _]|(_ & _ & H)]; [now apply pend_name_not_current in H|].
    eapply pend_ino_settle; [exact (k_pend_e _ _ _ _ _ C z' i H)|assumption].
Qed.

Lemma pend_ino_open A B x : pend_ino A A x -> pend_ino A B x.
Proof. intros [H1 H2]. split; [intro sel|]; apply harmless_open; [apply H1|apply H2]. Qed.

Lemma clean_open s A B K i0 : clean s A A K i0 -> clean s A B K i0.
Proof.
  intro C. constructor; try apply C.
  - apply Forall_forall. intros o Ho. pose proof (proj1 (Forall_forall _ _) (k_ops _ _ _ _ _ C) o Ho) as Hok.
    destruct o as [n j|a b j|n]; cbn [okop] in *; [|exact Hok|exact Hok].
    destruct Hok as [H1 H2]. split; [exact H1|]. intros z Hz. apply pend_ino_open. now apply (H2 z).
  - intros z i H. apply pend_ino_open. exact (k_pend_d _ _ _ _ _ C z i H).
  - intros z i H. apply pend_ino_open. exact (k_pend_e _ _ _ _ _ C z i H).
Qed.

Lemma vol_cur s A B K i0 : clean s A B K i0 -> lookup (vol_view s) s_CURRENT = Some (meta_content A).
Proof.
  intro C. unfold vol_view. rewrite lookup_view_of, (k_cur_e _ _ _ _ _ C). cbn [option_map].
  now rewrite (k_cur_i _ _ _ _ _ C).
Qed.

Lemma meta_content_inj A B : int64_ok (fd_num A) = true -> int64_ok (fd_num B) = true ->
  meta_content A = meta_content B -> A = B.
Proof. intros HA HB E. apply check_meta_content in HA, HB. rewrite E in HA. congruence. Qed.

Definition switch_ops (A B : fdesc) : list fsop :=
  [OCreate s_CURRENT_bak; OWrite s_CURRENT_bak (meta_content A); OFsync s_CURRENT_bak;
   OCreate (pend_name (fd_num B)); OWrite (pend_name (fd_num B)) (meta_content B); OFsync (pend_name (fd_num B));
   ORename (pend_name (fd_num B)) s_CURRENT; OSyncDir].

Lemma has_vol_view s n : has (vol_view s) n = has (ents s) n.
Proof. unfold has, vol_view. rewrite lookup_view_of. destruct (lookup (ents s) n); reflexivity. Qed.

Lemma vol_try_current s A B K i0 : clean s A B K i0 -> In (gen_name A) K -> int64_ok (fd_num A) = true ->
  try_current (vol_view s) s_CURRENT = TOk A.
Proof.
  intros C HK Hi. unfold try_current. rewrite (vol_cur _ _ _ _ _ C), check_meta_content by assumption.
  now rewrite has_vol_view, (k_keep_e _ _ _ _ _ C _ HK).
Qed.

Lemma set_meta_ops_switch' s A B K i0 : clean s A B K i0 -> In (gen_name A) K ->
  int64_ok (fd_num A) = true -> int64_ok (fd_num B) = true -> A <> B ->
  set_meta_ops (vol_view s) B = switch_ops A B.
Proof.
  intros C HK HA HB Hne. unfold set_meta_ops. rewrite (vol_try_current _ _ _ _ _ C HK HA), (vol_cur _ _ _ _ _ C).
  rewrite beq_neq; [reflexivity|]. intro E. apply Hne. now apply meta_content_inj.
Qed.

(* the eight operations, from a directory whose CURRENT holds A and whose pending files are harmless for (A, B) *)
Lemma switch_safe s A B K i0 :
  clean s A B K i0 -> In (gen_name A) K -> In (gen_name B) K ->
  (fd_num A <= fd_num B)%Z -> int64_ok (fd_num A) = true -> int64_ok (fd_num B) = true ->
  (forall k v, crash_image (fapply_all s (firstn k (switch_ops A B))) v ->
               get_meta_result v = GOk A \/ get_meta_result v = GOk B) /\
  (exists j, clean (fapply_all s (switch_ops A B)) B B K j) /\
  (forall v, crash_image (fapply_all s (switch_ops A B)) v -> get_meta_result v = GOk B).
Proof.
  intros C HKA HKB Hle HiA HiB.
  set (p := fd_num B).
  destruct (bak_create _ _ _ _ _ C) as (C1 & ib & E1). set (s1 := fapply s (OCreate s_CURRENT_bak)) in *.
  destruct (bak_write _ _ _ _ _ ib (meta_content A) C1 E1) as (C2 & E2). set (s2 := fapply s1 (OWrite s_CURRENT_bak (meta_content A))) in *.
  destruct (bak_fsync _ _ _ _ _ ib C2 E2) as (C3 & E3). set (s3 := fapply s2 (OFsync s_CURRENT_bak)) in *.
  destruct (p_create _ _ _ _ _ p C3) as (j & C4 & E4 & V4). set (s4 := fapply s3 (OCreate (pend_name p))) in *.
  destruct (p_write _ _ _ _ _ p j C4 HiB E4 V4) as (C5 & E5 & V5). set (s5 := fapply s4 (OWrite (pend_name p) (meta_content B))) in *.
  destruct (p_fsync _ _ _ _ _ p j C5 HiB E5 V5) as (C6 & E6 & V6). set (s6 := fapply s5 (OFsync (pend_name p))) in *.
  pose proof (rename_good _ _ _ _ _ p j C6 E6 V6) as G7. set (s7 := fapply s6 (ORename (pend_name p) s_CURRENT)) in *.
  pose proof (syncdir_clean _ _ _ _ _ p j C6 Hle E6 V6) as C8. fold s7 in C8. set (s8 := fapply s7 OSyncDir) in *.
  assert (forall t, clean t A B K i0 -> forall v, crash_image t v -> get_meta_result v = GOk A \/ get_meta_result v = GOk B) as HG.
  { intros t Ct v Hv. eapply good_images; [eapply clean_good; eassumption| | | | | |]; eassumption. }
  assert (forall v, crash_image s8 v -> get_meta_result v = GOk B) as H8.
  { intros v Hv. assert (good s8 B B K) as G by (eapply clean_good; eassumption).
    destruct (good_images _ _ _ _ _ G HKB HKB (Z.le_refl _) HiB HiB Hv); assumption. }
  assert (fapply_all s (switch_ops A B) = s8) as Hall by reflexivity.
  split; [|split].
  - intros k v. unfold switch_ops.
    destruct k as [|[|[|[|[|[|[|[|k]]]]]]]]; cbn [firstn fapply_all fold_left]; fold s1 s2 s3 s4 s5 s6 s7 s8.
    + now apply HG.
    + now apply HG.
    + now apply HG.
    + now apply HG.
    + now apply HG.
    + now apply HG.
    + now apply HG.
    + intro Hv. eapply good_images; eassumption.
    + rewrite firstn_nil. cbn [fold_left]. intro Hv. right. now apply H8.
  - exists j. rewrite Hall. exact C8.
  - rewrite Hall. exact H8.
Qed.

(* setMeta(B) from a settled directory on A *)
Theorem set_meta_crash_atomic s A B K i0 :
  clean s A A K i0 -> In (gen_name A) K -> In (gen_name B) K ->
  (fd_num A < fd_num B)%Z -> int64_ok (fd_num A) = true -> int64_ok (fd_num B) = true ->
  (forall k v, crash_image (fapply_all s (firstn k (set_meta_ops (vol_view s) B))) v ->
               get_meta_result v = GOk A \/ get_meta_result v = GOk B) /\
  (exists j, clean (set_meta s B) B B K j) /\
  (forall v, crash_image (set_meta s B) v -> get_meta_result v = GOk B).
Proof.
  intros C0 HKA HKB Hlt HiA HiB.
  assert (A <> B) as Hne by (intro X; subst; lia).
  unfold set_meta. rewrite (set_meta_ops_switch' _ _ _ _ _ (clean_open _ _ B _ _ C0) HKA HiA HiB Hne).
  apply (switch_safe s A B K i0); try assumption; [now apply clean_open|lia].
Qed.

(* the same invariant, on a plain directory *)
Definition cleanv (v : view) (A B : fdesc) (K : list bytes) : Prop :=
  lookup v s_CURRENT = Some (meta_content A) /\ (forall k, In k K -> has v k = true) /\
  (forall k, In k K -> ~ famc k) /\
  forall z c, lookup v (pend_name z) = Some c -> harmless A B c.

Lemma fs_of_view_from_spec v : forall s0,
  let e := fst (fs_of_view_from v s0) in let t := snd (fs_of_view_from v s0) in
  (forall n i, lookup e n = Some i -> s0 <= i < s0 + N.of_nat (length v) /\
                                       exists c, lookup v n = Some c /\ get_ino t i = IN c c false) /\
  (forall n c, lookup v n = Some c -> exists i, lookup e n = Some i) /\
  (forall n m i, lookup e n = Some i -> lookup e m = Some i -> n = m).
Proof.
  induction v as [|[k c] v IH]; intro s0; cbn zeta.
  - cbn. repeat split; intros; discriminate.
  - cbn [fs_of_view_from]. specialize (IH (s0 + 1)). cbn zeta in IH.
    destruct (fs_of_view_from v (s0 + 1)) as [e t]. cbn [fst snd] in *. destruct IH as (I1 & I2 & I3).
    split; [|split].
    + intros n i. cbn [lookup length]. beq_case' k n.
      * intro H. inversion H; subst i. split; [lia|]. exists c. split; [reflexivity|]. cbn [get_ino]. now rewrite N.eqb_refl.
      * intro H. destruct (I1 _ _ H) as (Hb & c' & Hc & Hg). split; [lia|]. exists c'. split; [assumption|].
        cbn [get_ino]. now rewrite (proj2 (N.eqb_neq s0 i)) by lia.
    + intros n c'. cbn [lookup]. destruct (beq k n); [eauto|]. apply I2.
    + intros n m i. cbn [lookup]. beq_case' k n; beq_case' k m; intros H1 H2; try congruence.
      * inversion H1; subst i. apply I1 in H2. lia.
      * inversion H2; subst i. apply I1 in H1. lia.
      * eapply I3; eassumption.
Qed.

Theorem restart_clean v A B K : cleanv v A B K -> exists i0, clean (fs_of_view v) A B K i0.
Proof.
  intros (Hc & Hk & Hnf & Hp). unfold fs_of_view.
  pose proof (fs_of_view_from_spec v 0) as S. cbn zeta in S.
  destruct (fs_of_view_from v 0) as [e t]. cbn [fst snd] in S. destruct S as (S1 & S2 & S3).
  destruct (S2 _ _ Hc) as (i0 & Hi0). exists i0.
  assert (forall n i c, lookup e n = Some i -> lookup v n = Some c -> get_ino t i = IN c c false) as Hg.
  { intros n i c Hl Hv. destruct (S1 _ _ Hl) as (_ & c' & Hc' & Hg). congruence. }
  assert (forall c, harmless A B c -> pend_ino A B (IN c c false)) as Hsyn.
  { intros c H. split; [intro sel; now rewrite synced_data|exact H]. }
  apply clean_settled; [|eapply Hg; eassumption|exact Hnf]. split; [exact S3|]. split; [|split; [exact Hi0|split]].
  - intros n i H. apply S1 in H. lia.
  - intros k Hin. apply has_lookup. apply Hk, has_lookup in Hin. destruct (lookup v k) as [c|] eqn:E; [|congruence].
    destruct (S2 _ _ E) as (i & ->). discriminate.
  - intros z i H. destruct (S1 _ _ H) as (_ & c & Hc' & ->). apply Hsyn. eapply Hp; eassumption.
Qed.

(* every crash image of a good state is a clean directory: still on A, or already on B *)
Theorem good_cleanv s A B K v :
  good s A B K -> (fd_num A <= fd_num B)%Z -> (forall k, In k K -> ~ famc k) -> crash_image s v ->
  cleanv v A B K \/ cleanv v B B K.
Proof.
  intros G Hle Hnf (mask & sel & ->). destruct (G mask) as ((i & Hi & Hd) & Hk & Hp).
  assert (forall z c, lookup (image_view mask sel s) (pend_name z) = Some c -> harmless A B c) as Hh.
  { intros z c. rewrite lookup_image_view.
    destruct (lookup (image_ents mask (pdir s) (dents s)) (pend_name z)) as [j|] eqn:E; [|discriminate].
    cbn [option_map]. intro H. inversion H. apply (proj1 (Hp z j E)). }
  assert (forall k, In k K -> has (image_view mask sel s) k = true) as Hk' by (intros k Hin; rewrite has_image_view; auto).
  destruct (Hd (sel i)) as [E|E]; [left|right]; (split; [rewrite lookup_image_view, Hi; cbn [option_map]; now rewrite E|]);
    (split; [exact Hk'|split; [exact Hnf|]]).
  - exact Hh.
  - intros z c H. eapply harmless_mono; [eapply Hh; eassumption|assumption].
Qed.

Corollary clean_image_cleanv s A B K i0 v : clean s A B K i0 -> (fd_num A <= fd_num B)%Z -> crash_image s v ->
  cleanv v A B K.
Proof.
  intros C Hle (mask & sel & ->).
  destruct (Jinv_image A B K (inos s) i0 (pdir s) mask (dents s) (k_ops _ _ _ _ _ C) (clean_Jinv _ _ _ _ _ C)) as (Hc & Hk & Hp).
  split; [|split; [|split]].
  - rewrite lookup_image_view, Hc. cbn [option_map]. now rewrite (k_cur_i _ _ _ _ _ C), synced_data.
  - intros k Hin. rewrite has_image_view. auto.
  - apply C.
  - intros z c. rewrite lookup_image_view.
    destruct (lookup (image_ents mask (pdir s) (dents s)) (pend_name z)) as [j|] eqn:E; [|discriminate].
    cbn [option_map]. intro H. inversion H. apply (proj1 (Hp z j E)).
Qed.

(* a settled directory stays settled across any number of crashes and restarts *)
Theorem settled_across_crashes s A K i0 v :
  clean s A A K i0 -> In (gen_name A) K -> int64_ok (fd_num A) = true -> crash_image s v ->
  get_meta_result v = GOk A /\ exists i1, clean (fs_of_view v) A A K i1.
Proof.
  intros C HK Hi Hv. split.
  - destruct (good_images _ _ _ _ _ (clean_good _ _ _ _ _ C) HK HK (Z.le_refl _) Hi Hi Hv); assumption.
  - apply restart_clean. eapply clean_image_cleanv; [eassumption|lia|assumption].
Qed.

(* operations on other files: anything that keeps the files of K and leaves the CURRENT family alone *)
Inductive foreign (K : list bytes) : fsop -> Prop :=
| fo_create n : ~ famc n -> foreign K (OCreate n)
| fo_write n d : ~ famc n -> foreign K (OWrite n d)
| fo_fsync n : ~ famc n -> foreign K (OFsync n)
| fo_rename a b : ~ famc a -> ~ famc b -> ~ In a K -> foreign K (ORename a b)
| fo_unlink n : ~ famc n -> ~ In n K -> foreign K (OUnlink n)
| fo_syncdir : foreign K OSyncDir.

Lemma not_famc n : ~ famc n -> n <> s_CURRENT /\ n <> s_CURRENT_bak /\ forall z, n <> pend_name z.
Proof.
  intro H. split; [|split].
  - intro X. apply H. now left.
  - intro X. apply H. right. now left.
  - intros z X. apply H. right. right. eauto.
Qed.

Lemma clean_syncdir s A B K i0 : clean s A B K i0 -> clean (fapply s OSyncDir) A B K i0.
Proof. intro C. apply clean_settled; [apply clean_eclean, C|apply C|apply C]. Qed.

(* A rename or unlink the invariant tolerates, appended to the pending operations.  [Jinv_step] keeps CURRENT, the
   files of K and the pending files; what remains is that every binding of the new directory is an old inode
   under a name that is a pending file only if its old name was. *)
Lemma clean_dirop s A B K i0 o :
  clean s A B K i0 -> okop A B K (inos s) o -> (forall n i, o <> DLink n i) ->
  (forall n m i, lookup (dapply (ents s) o) n = Some i -> lookup (dapply (ents s) o) m = Some i -> n = m) ->
  (forall m i, lookup (dapply (ents s) o) m = Some i ->
     exists m', lookup (ents s) m' = Some i /\ ((forall z, m <> pend_name z) -> forall z, m' <> pend_name z)) ->
  clean (FS (dapply (ents s) o) (dents s) (pdir s ++ [o]) (inos s) (next s)) A B K i0.
Proof.
  intros C Ho Hnl Hinj Hfrom.
  destruct (Jinv_step A B K (inos s) i0 (ents s) o (proj2 (proj2 (clean_eclean _ _ _ _ _ C))) Ho) as (Hc & Hk & Hp).
  assert (Hold : forall n i, In (DLink n i) (pdir s ++ [o]) -> In (DLink n i) (pdir s)).
  { intros n i H. apply in_app_or in H. destruct H as [H|[H|[]]]; [exact H|]. destruct (Hnl n i H). }
  constructor; cbn [ents dents pdir inos next]; try assumption; try apply C.
  - intros m i H. destruct (Hfrom m i H) as (m' & H' & _). exact (k_bnd_e _ _ _ _ _ C _ _ H').
  - intros n i H. exact (k_bnd_p _ _ _ _ _ C n i (Hold _ _ H)).
  - intros m i Hm H. destruct (Hfrom m i H) as (m' & H' & Hm'). destruct (k_sep _ _ _ _ _ C m' i (Hm' Hm) H') as [S1 S2].
    split; [exact S1|]. intros z Hin. exact (S2 z (Hold _ _ Hin)).
  - apply Forall_app. split; [apply C|]. constructor; [exact Ho|constructor].
Qed.

Lemma clean_unlink s A B K i0 n : clean s A B K i0 -> n <> s_CURRENT -> ~ In n K -> clean (fapply s (OUnlink n)) A B K i0.
Proof.
  intros C N1 HK. cbn [fapply]. destruct (lookup (ents s) n) as [x|] eqn:E; [|exact C].
  assert (forall m i, lookup (remove_at (ents s) n) m = Some i -> lookup (ents s) m = Some i) as Hr.
  { intros m i. rewrite lookup_remove_at. destruct (beq n m); [discriminate|auto]. }
  apply (clean_dirop s A B K i0 (DUnlink n) C); [split; assumption|discriminate| |].
  - intros a b i H1 H2. exact (k_inj _ _ _ _ _ C _ _ _ (Hr _ _ H1) (Hr _ _ H2)).
  - intros m i H. exists m. auto.
Qed.

Lemma clean_foreign s A B K i0 o : clean s A B K i0 -> foreign K o -> clean (fapply s o) A B K i0.
Proof.
  intros C F. destruct F as [n Hn|n d Hn|n Hn|a b Ha Hb HK|n Hn HK|].
  - destruct (not_famc _ Hn) as (N1 & _ & N3). destruct (lookup (ents s) n) as [i|] eqn:E.
    + rewrite (fapply_create_existing _ _ _ E). eapply clean_upd_other; eassumption.
    + now apply clean_link_new.
  - destruct (not_famc _ Hn) as (N1 & _ & N3). destruct (lookup (ents s) n) as [i|] eqn:E.
    + rewrite (fapply_write _ _ _ _ E). eapply clean_upd_other; eassumption.
    + cbn [fapply]. now rewrite E.
  - destruct (not_famc _ Hn) as (N1 & _ & N3). destruct (lookup (ents s) n) as [i|] eqn:E.
    + rewrite (fapply_fsync _ _ _ E). eapply clean_upd_other; eassumption.
    + cbn [fapply]. now rewrite E.
  - destruct (not_famc _ Ha) as (_ & _ & A3). destruct (not_famc _ Hb) as (_ & _ & B3).
    cbn [fapply]. destruct (lookup (ents s) a) as [x|] eqn:E; [|exact C].
    pose proof (rename_cases (ents s) a b x E) as Hr.
    assert (Ed : rename_at (ents s) a b = dapply (ents s) (DRename a b x)) by (unfold rename_at; now rewrite E).
    rewrite Ed in *.
    apply (clean_dirop s A B K i0 (DRename a b x) C); [cbn [okop]; auto|discriminate| |].
    + rewrite <- Ed. apply (rename_inj _ _ _ _ E), C.
    + intros m i H. apply Hr in H. destruct H as [[-> ->]|(_ & _ & H)]; [exists a|exists m]; auto.
  - destruct (not_famc _ Hn) as (N1 & _). now apply clean_unlink.
  - now apply clean_syncdir.
Qed.

Lemma clean_K_sub s A B K K' i0 : clean s A B K i0 -> (forall k, In k K' -> In k K) -> clean s A B K' i0.
Proof.
  intros C Hs. constructor; try apply C.
  - apply Forall_forall. intros o Ho. pose proof (proj1 (Forall_forall _ _) (k_ops _ _ _ _ _ C) o Ho) as Hok.
    destruct o as [n j|a b j|n]; cbn [okop] in *; [exact Hok| |].
    + destruct Hok as (H1 & H2 & H3). split; [assumption|split; [assumption|]]. intro X. apply H3. auto.
    + destruct Hok as (H1 & H2). split; [assumption|]. intro X. apply H2. auto.
  - intros k Hk. apply (k_keep _ _ _ _ _ C). auto.
  - intros k Hk. apply (k_keep_e _ _ _ _ _ C). auto.
  - intros k Hk. apply (k_Knf _ _ _ _ _ C). auto.
Qed.

Lemma clean_K_add s A B K i0 k : clean s A B K i0 -> pdir s = [] -> has (dents s) k = true -> has (ents s) k = true ->
  ~ famc k -> clean s A B (k :: K) i0.
Proof.
  intros C Hp Hd He Hn. constructor; try apply C.
  - rewrite Hp. constructor.
  - intros k' [<-|Hk]; [assumption|now apply (k_keep _ _ _ _ _ C)].
  - intros k' [<-|Hk]; [assumption|now apply (k_keep_e _ _ _ _ _ C)].
  - intros k' [<-|Hk]; [assumption|now apply (k_Knf _ _ _ _ _ C)].
Qed.

Lemma gen_name_not_famc fd : int64_ok (fd_num fd) = true -> ~ famc (gen_name fd).
Proof.
  intros Hi [H|[H|(z & H)]]; destruct (gen_name_not_family fd Hi) as (H1 & H2 & H3); [auto|auto|now apply (H3 z)].
Qed.

Inductive chain_ev := EvForeign (o : fsop) | EvSwitch (B : fdesc).

(* the events the session may issue: other files' operations that keep the current manifest; a switch to a newer
   manifest that exists — newManifest syncs the manifest (file and directory) and then calls SetMeta; after the
   switch only the new manifest has to stay *)
Fixpoint valid_chain (s : fsys) (A : fdesc) (K : list bytes) (evs : list chain_ev) : Prop :=
  match evs with
  | [] => True
  | EvForeign o :: l => foreign K o /\ valid_chain (fapply s o) A K l
  | EvSwitch B :: l =>
      has (ents s) (gen_name B) = true /\ (fd_num A < fd_num B)%Z /\ int64_ok (fd_num B) = true /\
      valid_chain (set_meta (fapply s OSyncDir) B) B [gen_name B] l
  end.

(* every state between two file-system operations, with the manifests GetMeta may answer there *)
Fixpoint chain_states (s : fsys) (A : fdesc) (evs : list chain_ev) : list (fsys * fdesc * fdesc) :=
  match evs with
  | [] => [(s, A, A)]
  | EvForeign o :: l => (s, A, A) :: chain_states (fapply s o) A l
  | EvSwitch B :: l =>
      let s1 := fapply s OSyncDir in
      let ops := set_meta_ops (vol_view s1) B in
      (s, A, A) :: map (fun k => (fapply_all s1 (firstn k ops), A, B)) (seq 0 (S (length ops))) ++
      chain_states (set_meta s1 B) B l
  end.

Definition safe (x : fsys * fdesc * fdesc) : Prop :=
  let '(s, A, B) := x in forall v, crash_image s v -> get_meta_result v = GOk A \/ get_meta_result v = GOk B.

Theorem chain_safe evs : forall s A K i0,
  clean s A A K i0 -> In (gen_name A) K -> int64_ok (fd_num A) = true -> valid_chain s A K evs ->
  Forall safe (chain_states s A evs).
Proof.
  induction evs as [|[o|B] l IH]; intros s A K i0 C HK Hi V; cbn [chain_states valid_chain] in *.
  - constructor; [|constructor]. intros v Hv. left. eapply settled_across_crashes; eassumption.
  - destruct V as [F V]. constructor.
    + intros v Hv. left. eapply settled_across_crashes; eassumption.
    + eapply IH; [eapply clean_foreign; eassumption|assumption|assumption|assumption].
  - destruct V as (Hhas & Hlt & HiB & V). constructor.
    + intros v Hv. left. eapply settled_across_crashes; eassumption.
    + pose proof (clean_syncdir _ _ _ _ _ C) as C1. set (s1 := fapply s OSyncDir) in *.
      assert (clean s1 A A (gen_name B :: K) i0) as C2.
      { apply clean_K_add; [assumption|reflexivity|exact Hhas|exact Hhas|now apply gen_name_not_famc]. }
      destruct (set_meta_crash_atomic s1 A B (gen_name B :: K) i0 C2 (or_intror HK) (or_introl eq_refl) Hlt Hi HiB) as (H1 & (j & H2) & H3).
      apply Forall_app. split.
      * apply Forall_forall. intros x Hx. apply in_map_iff in Hx. destruct Hx as (k & <- & _). exact (H1 k).
      * apply (IH _ B [gen_name B] j); [|now left|assumption|assumption].
        eapply clean_K_sub; [exact H2|]. intros k [<-|[]]. now left.
Qed.

Lemma fapply_all_app s a b : fapply_all s (a ++ b) = fapply_all (fapply_all s a) b.
Proof. unfold fapply_all. apply fold_left_app. Qed.

Lemma clean_unlinks A B K i0 l : (forall q, In q l -> exists z, q = pend_name z) ->
  forall s k, clean s A B K i0 -> clean (fapply_all s (firstn k (map OUnlink l))) A B K i0.
Proof.
  induction l as [|q l IH]; intros Hl s k C.
  - cbn. now rewrite firstn_nil.
  - destruct k as [|k]; [exact C|]. cbn [map firstn fapply_all fold_left].
    apply (IH (fun q' H => Hl q' (or_intror H))). destruct (Hl q (or_introl eq_refl)) as (z & ->).
    apply clean_unlink; [assumption|apply pend_name_not_current|].
    intro X. apply (k_Knf _ _ _ _ _ C _ X). right. right. eauto.
Qed.

(* which file wins on the directory the running process sees *)
Lemma clean_choice s A B K i0 :
  clean s A B K i0 -> In (gen_name A) K -> In (gen_name B) K ->
  int64_ok (fd_num A) = true -> int64_ok (fd_num B) = true ->
  g_chosen (get_meta_choice (vol_view s)) = Some (s_CURRENT, A) \/
  (exists q, In q (pend_names (vol_view s)) /\ g_chosen (get_meta_choice (vol_view s)) = Some (q, B) /\
             (fd_num A < fd_num B)%Z).
Proof.
  intros C HKA HKB HiA HiB. set (v := vol_view s).
  assert (tc_cur (try_currents v [s_CURRENT; s_CURRENT_bak] false false) = Some (s_CURRENT, A)) as Hc.
  { cbn [try_currents]. unfold try_current at 1. unfold v. rewrite (vol_cur _ _ _ _ _ C), check_meta_content by assumption.
    rewrite has_vol_view, (k_keep_e _ _ _ _ _ C _ HKA). reflexivity. }
  unfold get_meta_choice. cbn [g_chosen]. fold v. rewrite Hc.
  destruct (tc_cur (try_currents v (pend_names v) false false)) as [[q pfd]|] eqn:Ep; [|now left].
  apply try_currents_some in Ep. destruct Ep as [Hin Hok].
  destruct (try_current_ok _ _ _ Hok) as (c & Hl & Hch & _).
  pose proof Hin as Hin'. apply in_pend_names in Hin'. destruct Hin' as (n & z & _ & _ & ->).
  assert (harmless A B c) as Hh.
  { unfold v, vol_view in Hl. rewrite lookup_view_of in Hl.
    destruct (lookup (ents s) (pend_name z)) as [i|] eqn:E; [|discriminate]. cbn [option_map] in Hl. inversion Hl.
    exact (proj2 (k_pend_e _ _ _ _ _ C z i E)). }
  destruct (Hh _ Hch) as [->|Hle].
  - destruct (fd_num B >? fd_num A)%Z eqn:G; [|now left]. right. exists (pend_name z).
    split; [assumption|split; [reflexivity|]]. now apply Z.gtb_lt in G.
  - assert ((fd_num pfd >? fd_num A)%Z = false) as -> by (rewrite Z.gtb_ltb; apply Z.ltb_ge; lia). now left.
Qed.

Lemma firstn_app_cases {X} k (a b : list X) :
  (k <= length a)%nat /\ firstn k (a ++ b) = firstn k a \/
  exists k', firstn k (a ++ b) = a ++ firstn k' b.
Proof.
  destruct (Nat.le_gt_cases k (length a)) as [H|H].
  - left. split; [assumption|]. rewrite firstn_app. replace (k - length a)%nat with 0%nat by lia.
    cbn. now rewrite app_nil_r.
  - right. exists (k - length a)%nat. rewrite firstn_app, firstn_all2 by lia. reflexivity.
Qed.

(* GetMeta on a read-write storage, from a settled directory or from one a crash left in the middle of a switch:
   it answers A or B, a crash at any point of its repair leaves a directory that answers A or B, and the
   repaired directory is settled on the answer (or, when the pending file did not validate, still open on A). *)
Theorem repair_safe s A B K i0 :
  clean s A B K i0 -> In (gen_name A) K -> In (gen_name B) K -> (fd_num A <= fd_num B)%Z ->
  int64_ok (fd_num A) = true -> int64_ok (fd_num B) = true ->
  let r := fst (get_meta_ops false (vol_view s)) in
  let ops := snd (get_meta_ops false (vol_view s)) in
  (forall k v, crash_image (fapply_all s (firstn k ops)) v -> get_meta_result v = GOk A \/ get_meta_result v = GOk B) /\
  ((r = GOk A /\ clean (fapply_all s ops) A B K i0) \/ (r = GOk B /\ exists j, clean (fapply_all s ops) B B K j)).
Proof.
  intros C HKA HKB Hle HiA HiB. cbn zeta.
  assert (forall t i X, (X = A \/ X = B) -> clean t X B K i -> forall v, crash_image t v -> get_meta_result v = GOk A \/ get_meta_result v = GOk B) as HG.
  { intros t i X [-> | ->] Ct v Hv.
    - eapply good_images; [eapply clean_good; eassumption| | | | | |]; eassumption.
    - right. destruct (good_images _ _ _ _ _ (clean_good _ _ _ _ _ Ct) HKB HKB (Z.le_refl _) HiB HiB Hv); assumption. }
  assert (forall q, In q (pend_names (vol_view s)) -> exists z, q = pend_name z) as Hpn.
  { intros q Hq. apply in_pend_names in Hq. destruct Hq as (n & z & _ & _ & ->). eauto. }
  rewrite get_meta_ops_unfold.
  destruct (clean_choice _ _ _ _ _ C HKA HKB HiA HiB) as [Hch|(q & Hq & Hch & Hlt)]; rewrite Hch; cbn [fst snd].
  - (* CURRENT wins *)
    rewrite beq_refl. cbn [negb orb andb]. change (g_pend (get_meta_choice (vol_view s))) with (pend_names (vol_view s)).
    rewrite (set_meta_ops_same _ A (vol_cur _ _ _ _ _ C)). cbn [app].
    assert (forall k, clean (fapply_all s (firstn k (if negb match pend_names (vol_view s) with [] => true | _ :: _ => false end
                                                    then map OUnlink (pend_names (vol_view s)) else []))) A B K i0) as Hcl.
    { intro k. destruct (pend_names (vol_view s)) eqn:E; cbn [negb]; [now rewrite firstn_nil|]. rewrite <- E in *.
      now apply clean_unlinks. }
    split.
    + intros k v. apply (HG _ i0 A); [now left|apply Hcl].
    + left. split; [reflexivity|]. specialize (Hcl (length (map OUnlink (pend_names (vol_view s))))).
      destruct (pend_names (vol_view s)) eqn:E; cbn [negb] in *; [exact C|]. rewrite <- E in *.
      now rewrite firstn_all in Hcl.
  - (* a pending file naming B wins: the switch is replayed *)
    assert (A <> B) as Hne by (intro X; subst; lia).
    assert (beq q s_CURRENT = false) as ->.
    { destruct (Hpn q Hq) as (z & ->). apply beq_neq, pend_name_not_current. }
    cbn [negb orb andb]. change (g_pend (get_meta_choice (vol_view s))) with (pend_names (vol_view s)).
    rewrite (set_meta_ops_switch' _ _ _ _ _ C HKA HiA HiB Hne).
    destruct (switch_safe s A B K i0 C HKA HKB Hle HiA HiB) as (H1 & (j & H2) & H3).
    split.
    + intros k v. destruct (firstn_app_cases k (switch_ops A B) (map OUnlink (pend_names (vol_view s)))) as [[_ ->]|(k' & ->)].
      * apply H1.
      * rewrite fapply_all_app. apply (HG _ j B); [now right|]. now apply clean_unlinks.
    + right. split; [reflexivity|]. exists j. rewrite fapply_all_app.
      pose proof (clean_unlinks B B K j (pend_names (vol_view s)) Hpn _ (length (map OUnlink (pend_names (vol_view s)))) H2) as X.
      now rewrite firstn_all in X.
Qed.

Definition M (n : Z) : fdesc := FD TManifest n.

(* a settled directory with a stale backup and a stale pending file, and a chain of events on it *)
Definition ex_settled_view : view :=
  [(s_LOCK, []); (s_LOG, [83]); (gen_name (M 1), [109]); (s_CURRENT, meta_content (M 1));
   (s_CURRENT_bak, meta_content (M 0)); (pend_name 1, meta_content (M 1))].

Lemma lookup_in {A} (v : list (bytes * A)) n x : lookup v n = Some x -> In (n, x) v.
Proof.
  induction v as [|[k y] v IH]; cbn [lookup]; [discriminate|]. beq_case' k n.
  - intro H. inversion H; subst. now left.
  - intro H. right. auto.
Qed.

Lemma ex_settled_cleanv : cleanv ex_settled_view (M 1) (M 1) [gen_name (M 1)].
Proof.
  split; [reflexivity|split; [|split]].
  - intros k [<-|[]]. reflexivity.
  - intros k [<-|[]]. now apply gen_name_not_famc.
  - intros z c H. apply lookup_in in H. unfold ex_settled_view in H. cbn [In] in H.
    destruct H as [H|[H|[H|[H|[H|[H|[]]]]]]]; pose proof (f_equal fst H) as Hn; pose proof (f_equal snd H) as Hc; cbn [fst snd] in Hn, Hc; clear H.
    + exfalso. unfold pend_name, s_CURRENT_dot, s_LOCK in Hn. cbn [app] in Hn. discriminate.
    + exfalso. unfold pend_name, s_CURRENT_dot, s_LOG in Hn. cbn [app] in Hn. discriminate.
    + exfalso. destruct (gen_name_not_family (M 1) eq_refl) as (_ & _ & Hg3). exact (Hg3 z Hn).
    + exfalso. symmetry in Hn. now apply pend_name_not_current in Hn.
    + exfalso. symmetry in Hn. now apply pend_name_not_bak in Hn.
    + subst c. intros fd Hfd. vm_compute in Hfd. inversion Hfd. right. cbn. lia.
Qed.

Definition ex_chain : list chain_ev :=
  [EvForeign (OCreate (gen_name (FD TTable 7))); EvForeign (OWrite (gen_name (FD TTable 7)) [1; 2]);
   EvForeign (OCreate (gen_name (M 2))); EvForeign (OWrite (gen_name (M 2)) [109]);
   EvSwitch (M 2); EvForeign (OUnlink (gen_name (M 1)));
   EvForeign (OCreate (gen_name (M 3))); EvSwitch (M 3)].

Theorem ex_chain_valid :
  exists i0, clean (fs_of_view ex_settled_view) (M 1) (M 1) [gen_name (M 1)] i0 /\
  valid_chain (fs_of_view ex_settled_view) (M 1) [gen_name (M 1)] ex_chain /\
  List.length (chain_states (fs_of_view ex_settled_view) (M 1) ex_chain) = 27%nat.
Proof.
  destruct (restart_clean _ _ _ _ ex_settled_cleanv) as (i0 & C). exists i0. split; [exact C|]. split.
  - assert (forall fd, int64_ok (fd_num fd) = true -> ~ famc (gen_name fd)) as NF by (intros; now apply gen_name_not_famc).
    cbn [valid_chain ex_chain]. repeat split; try (constructor; apply NF; reflexivity); try reflexivity; try (cbn; lia).
    + constructor; [apply NF; reflexivity|]. intros [H|[]]. vm_compute in H. discriminate.
  - reflexivity.
Qed.

(* CURRENT unusable, CURRENT.bak good: before the repair "fix: setMeta backs up CURRENT only when it is
   usable" GetMeta's own repair destroyed the only usable pointer *)
Definition ex_bak_view : view :=
  [(s_CURRENT, [77; 65; 78; 73; 70]); (s_CURRENT_bak, meta_content (M 4)); (gen_name (M 4), [109])].

Theorem repair_from_backup_old_refuted :
  get_meta_result ex_bak_view = GOk (M 4) /\
  exists k mask sel,
    get_meta_result (image_view mask sel (fapply_all (fs_of_view ex_bak_view) (firstn k (get_meta_ops_old ex_bak_view))))
    = GErr GCorrupted.
Proof. split; [reflexivity|]. exists 3%nat, [], (fun _ => None). reflexivity. Qed.

(* all crash states of GetMeta's repair after that fix, on that directory, enumerated: every prefix, every
   sub-selection of the pending directory operations, the new file cut at every length *)
Fixpoint all_masks (n : nat) : list (list bool) :=
  match n with
  | O => [[]]
  | S n' => flat_map (fun m => [true :: m; false :: m]) (all_masks n')
  end.

Definition ex_sels : list (N -> option nat) :=
  (fun _ => None) :: map (fun k i => if i =? 3 then Some k else None) (seq 0 18).

Theorem repair_from_backup_fixed_enumerated :
  let ops := snd (get_meta_ops false ex_bak_view) in
  ops = [OCreate (pend_name 4); OWrite (pend_name 4) (meta_content (M 4)); OFsync (pend_name 4);
         ORename (pend_name 4) s_CURRENT; OSyncDir] /\
  forallb (fun k =>
    forallb (fun mask =>
      forallb (fun sel =>
        match get_meta_result (image_view mask sel (fapply_all (fs_of_view ex_bak_view) (firstn k ops))) with
        | GOk fd => fd_eqb fd (M 4)
        | GErr _ => false
        end) ex_sels) (all_masks 2)) (seq 0 6) = true.
Proof. vm_compute. split; reflexivity. Qed.

(* an answer that was observed can be taken back: a read-only GetMeta sees the pending file of an interrupted
   switch and answers the new manifest; a crash inside the repair of the next read-write GetMeta (which truncates
   that very file before rewriting it) leaves a directory that answers the old one.  Both manifests are intact. *)
Definition ex_pending_view : view :=
  [(s_CURRENT, meta_content (M 1)); (gen_name (M 1), [109]); (gen_name (M 2), [109]); (pend_name 2, meta_content (M 2))].

Theorem observed_answer_may_revert :
  get_meta_result ex_pending_view = GOk (M 2) /\
  exists k mask sel,
    get_meta_result (image_view mask sel (fapply_all (fs_of_view ex_pending_view)
                                                   (firstn k (snd (get_meta_ops false ex_pending_view)))))
    = GOk (M 1).
Proof. split; [reflexivity|]. exists 4%nat, [true], (fun i => if i =? 3 then Some 0%nat else None). reflexivity. Qed.

(* outside the invariant: a pending file that names a manifest which does not exist (left by a setMeta that
   failed after writing it) makes the answer depend on other files: creating the named file flips GetMeta *)
Definition ex_dangling_view : view :=
  [(s_CURRENT, meta_content (M 5)); (gen_name (M 5), [109]); (pend_name 9, meta_content (M 9))].

Theorem dangling_pending_flips :
  get_meta_result ex_dangling_view = GOk (M 5) /\
  get_meta_result (vapply ex_dangling_view (OCreate (gen_name (M 9)))) = GOk (M 9).
Proof. split; reflexivity. Qed.

(* a switch to an OLDER number is not atomic in this sense: the stale pending file wins afterwards *)
Definition ex_backwards_view : view :=
  [(s_CURRENT, meta_content (M 9)); (gen_name (M 9), [109]); (gen_name (M 5), [109]); (gen_name (M 7), [109]);
   (pend_name 7, meta_content (M 7))].

Theorem backwards_switch_refuted :
  get_meta_result ex_backwards_view = GOk (M 9) /\
  get_meta_result (vol_view (set_meta (fs_of_view ex_backwards_view) (M 5))) = GOk (M 7).
Proof. split; reflexivity. Qed.

Theorem crash_image_restarts_clean s A B K v :
  good s A B K -> (fd_num A <= fd_num B)%Z -> (forall k, In k K -> ~ famc k) -> crash_image s v ->
  (exists i, clean (fs_of_view v) A B K i) \/ (exists i, clean (fs_of_view v) B B K i).
Proof.
  intros G Hle Hnf Hv.
  destruct (good_cleanv s A B K v G Hle Hnf Hv) as [H|H]; [left|right]; exact (restart_clean _ _ _ _ H).
Qed.
