(* Store/RepairSeqProofs.v — whole-function facts about Store/RepairBytes.v recover_bytes (leveldb.Recover on bytes):
   - commit_seq: a record that carries a sequence number hands it to the session through session.commit, whichever
     way the manifest is written (new manifest, new manifest because of the size limit, flushed record);
   - open_rw_seq, open_ro_seq: through recoverJournal / recoverJournalRO on ARBITRARY journal bytes db.seq never
     decreases, and no applied batch makes "batchSeq + batchLen" wrap around 2^64 (the applied batches are the ghost
     os_kept): decodeBatchToMem rejects a header above keyMaxSeq;
   - loop_facts: the loop of recoverTable over the table files: every file gets one log line, the files not yet
     visited are untouched, the running maximum dominates the sequence number of every registered table;
   - recover_seq_above_all, the composition: db.seq of the DB Recover returns is at or above the sequence number of
     every good key of every table it registered. *)
From Coq Require Import List NArith ZArith Bool Lia Permutation.
From GL Require Import Base.Bytes Base.Order Codec.IKey Codec.Table Lsm.ReadPath
  Store.OpenPath Store.OpenJournalProofs Store.OpenTotalProofs Store.RepairBytes Store.RepairBytesProofs.
From GL Require Codec.Batch Codec.SessionRecord Mem.MemDB.
Import ListNotations.
Local Open Scope N_scope.

Lemma fold_left_inv {A B} (P : A -> Prop) (f : A -> B -> A) l :
  (forall a b, P a -> P (f a b)) -> forall a, P a -> P (fold_left f l a).
Proof. intros H. induction l as [|x l IH]; intros a Ha; cbn [fold_left]; [exact Ha | apply IH, H, Ha]. Qed.

Section SeqSet.
  Variable jcrc : bytes -> N.
  Variable jp : Journal.jparams.
  Variable rp : SR.rparams.
  Variable c : comparer.

  Definition seqset (n : N) (r : SR.srec) : Prop := SR.has r (SR.tSeqNum rp) = true /\ SR.sr_seq r = n.

  Ltac keep H := destruct H as [A B]; split; [unfold SR.has; cbn [SR.sr_has]; apply N.setbit_iff; right; exact A | exact B].

  Lemma seqset_set_seq r n : seqset n (SR.set_seq rp r n).
  Proof. split; [unfold SR.has, SR.set_seq; cbn [SR.sr_has]; apply N.setbit_eq | reflexivity]. Qed.
  Lemma seqset_nextfile r n z : seqset n r -> seqset n (SR.set_nextfile rp r z).
  Proof. intros H. unfold SR.set_nextfile. keep H. Qed.
  Lemma seqset_journal r n z : seqset n r -> seqset n (SR.set_journal rp r z).
  Proof. intros H. unfold SR.set_journal. keep H. Qed.
  Lemma seqset_comparer r n z : seqset n r -> seqset n (SR.set_comparer rp r z).
  Proof. intros H. unfold SR.set_comparer. keep H. Qed.
  Lemma seqset_cp r n z : seqset n r -> seqset n (SR.add_comp_ptr rp r z).
  Proof. intros H. unfold SR.add_comp_ptr. keep H. Qed.
  Lemma seqset_table r n z : seqset n r -> seqset n (SR.add_table rp r z).
  Proof. intros H. unfold SR.add_table. keep H. Qed.

  Lemma seqset_cptrs n cps : forall level r, seqset n r -> seqset n (add_cptrs rp level cps r).
  Proof.
    induction cps as [|[ik|] cps IH]; intros level r H; cbn [add_cptrs]; [exact H| |apply IH; exact H].
    apply IH. apply seqset_cp. exact H.
  Qed.

  Lemma seqset_fill n s r snapshot name : seqset n r -> seqset n (fill_record rp s r snapshot name).
  Proof.
    intros H. unfold fill_record. cbv zeta.
    pose proof (seqset_nextfile r n (s_next s) H) as H1.
    destruct snapshot; [|exact H1].
    apply seqset_comparer, seqset_cptrs.
    set (r2 := if SR.has (SR.set_nextfile rp r (s_next s)) (SR.tJournalNum rp) then _ else _).
    assert (H2 : seqset n r2) by (unfold r2; destruct (SR.has _ (SR.tJournalNum rp)); [exact H1 | apply seqset_journal; exact H1]).
    rewrite (proj1 H2). exact H2.
  Qed.

  Lemma seqset_vfill n v r : seqset n r -> seqset n (v_fill_record rp v r).
  Proof.
    intros H. unfold v_fill_record. cbv zeta. apply fold_left_inv; [|exact H].
    intros a lt Ha. apply fold_left_inv; [|exact Ha].
    intros a' t Ha'. destruct (SR.memZ _ _); [exact Ha' | apply seqset_table; exact Ha'].
  Qed.

  Lemma record_commited_seq n s r s2 : seqset n r -> record_commited rp s r = OOk s2 -> s_seq s2 = n.
  Proof.
    intros [A B]. unfold record_commited. destruct (SR.pfold _ _ _); try discriminate.
    intros E. injection E as <-. cbn [s_seq]. rewrite A. exact B.
  Qed.

  Lemma new_manifest_seq n name rec v st st' rec' : seqset n rec ->
    new_manifest jcrc jp rp name rec v st = OOk (st', rec') -> s_seq (c_sess st') = n /\ seqset n rec'.
  Proof.
    intros H. unfold new_manifest. cbv zeta.
    set (r' := v_fill_record rp v _).
    assert (H' : seqset n r') by (apply seqset_vfill, seqset_fill; exact H). clearbody r'.
    destruct (SR.encode rp r') as [b|]; [|discriminate].
    destruct (record_commited rp _ r') as [s2|e] eqn:Erc; cbn [obind]; [|discriminate].
    apply (record_commited_seq n _ _ _ H') in Erc.
    destruct (s_hasman (c_sess st) || negb (s_manfd (c_sess st) <? 0)%Z); intros E; injection E as <- <-;
      cbn [c_sess s_seq]; split; assumption.
  Qed.

  Lemma flush_manifest_seq n name rec st st' rec' : seqset n rec ->
    flush_manifest jcrc jp rp name rec st = OOk (st', rec') -> s_seq (c_sess st') = n /\ seqset n rec'.
  Proof.
    intros H. unfold flush_manifest. cbv zeta.
    set (r' := fill_record rp _ rec false name).
    assert (H' : seqset n r') by (apply seqset_fill; exact H). clearbody r'.
    destruct (SR.encode rp r') as [b|]; [|discriminate].
    destruct (record_commited rp _ r') as [s2|e] eqn:Erc; cbn [obind]; [|discriminate].
    apply (record_commited_seq n _ _ _ H') in Erc.
    intros E; injection E as <- <-. cbn [c_sess s_seq]. split; assumption.
  Qed.

  Theorem commit_seq n o rec st st' rec' : seqset n rec ->
    commit jcrc jp rp c o rec st = OOk (st', rec') -> s_seq (c_sess st') = n.
  Proof.
    intros H. unfold commit. destruct (spawn c _ _) as [nv|e]; cbn [obind]; [|discriminate].
    destruct (negb (s_hasman (c_sess st))).
    - destruct (new_manifest _ _ _ _ rec nv st) as [[st1 rec1]|e] eqn:E1; cbn [obind]; [|discriminate].
      intros E; injection E as <- _. cbn [c_sess set_levels s_seq]. exact (proj1 (new_manifest_seq _ _ _ _ _ _ _ H E1)).
    - destruct (oo_maxman o <=? _)%Z.
      + match goal with |- context [new_manifest _ _ _ _ ?r nv st] => set (nr := r) end.
        assert (Hn : seqset n nr).
        { unfold nr. rewrite (proj1 H). rewrite (proj2 H). apply seqset_set_seq. }
        clearbody nr.
        destruct (new_manifest _ _ _ _ nr nv st) as [[st1 rec1]|e] eqn:E1; cbn [obind]; [|discriminate].
        intros E; injection E as <- _. cbn [c_sess set_levels s_seq fst]. exact (proj1 (new_manifest_seq _ _ _ _ _ _ _ Hn E1)).
      + destruct (flush_manifest _ _ _ _ rec st) as [[st1 rec1]|e] eqn:E1; cbn [obind]; [|discriminate].
        intros E; injection E as <- _. cbn [c_sess set_levels s_seq]. exact (proj1 (flush_manifest_seq _ _ _ _ _ _ H E1)).
  Qed.
End SeqSet.

Section SeqMono.
  Variable jcrc : bytes -> N.
  Variable jp : Journal.jparams.
  Variable rp : SR.rparams.
  Variable kp : kparams.
  (* side condition on the key constants (keyMaxSeq = 2^56-1); it holds of the generated constants (Gen/ConstsOk.v) *)
  Hypothesis kpok : kparams_ok kp.
  Variable bhl : N.
  Variable mp : MemDB.mparams.
  Variable tp : tparams.
  Variable tcrc : bytes -> N.
  Variable compress : bytes -> bytes.
  Variable snappy : bool.
  Variable fgen : option (bytes * (list (N * list bytes) -> bytes)).
  Variable blockSize ri : N.
  Variable c : comparer.

  Definition nowrap (l : list (N * N)) : Prop := forall x, In x l -> fst x + snd x < 2 ^ 64.

  (* b continues a: more batches applied, none of which makes "batchSeq + uint64(batchLen)" wrap (decodeBatchToMem
     accepts a header only if first seq + count <= keyMaxSeq), and db.seq did not decrease.  nowrap is part of the
     relation because it is what makes the u64 truncation of the new db.seq the identity (replay_record_ext). *)
  Definition ext (a b : rj) : Prop :=
    exists l, r_kept b = r_kept a ++ l /\ nowrap l /\ r_seq a <= r_seq b.

  Lemma ext_refl a : ext a a.
  Proof. exists []. split; [symmetry; apply app_nil_r | split; [intros x []|lia]]. Qed.
  Lemma ext_same a b : r_seq b = r_seq a -> r_kept b = r_kept a -> ext a b.
  Proof. intros S K. exists []. split; [rewrite K; symmetry; apply app_nil_r | split; [intros x []|lia]]. Qed.
  Lemma ext_trans a b d : ext a b -> ext b d -> ext a d.
  Proof.
    intros (l1 & K1 & N1 & S1) (l2 & K2 & N2 & S2). exists (l1 ++ l2). split; [rewrite K2, K1; symmetry; apply app_assoc|].
    split; [|lia]. intros x Hx. apply in_app_or in Hx as [Hx|Hx]; [apply N1|apply N2]; exact Hx.
  Qed.
  Lemma ext_left a a' b : r_seq a' = r_seq a -> r_kept a' = r_kept a -> ext a' b -> ext a b.
  Proof. intros S K H. eapply ext_trans; [apply (ext_same a a' S K) | exact H]. Qed.

  Lemma decode_to_mem_seq data e d hs sq bl d' hs' :
    BT.decode_to_mem kp bhl (ibc c) mp data e d hs = BT.TmOk sq bl d' hs' -> e <= sq.
  Proof.
    unfold BT.decode_to_mem. destruct (BT.decode_header _) as [x|[s b]]; [discriminate|].
    destruct (s <? e) eqn:El; [discriminate|]. apply N.ltb_ge in El.
    destruct ((keyMaxSeq kp <? s) || (keyMaxSeq kp - s <? b)); [discriminate|].
    destruct (BT.decode_loop _ _ _ _ _ _) as [st|x st| |]; try discriminate.
    destruct (BT.tm_n st =? Z.of_N b)%Z; [|discriminate]. intros E. injection E as <- _ _ _. exact El.
  Qed.

  Lemma decode_to_mem_rng data e d hs sq bl d' hs' :
    BT.decode_to_mem kp bhl (ibc c) mp data e d hs = BT.TmOk sq bl d' hs' -> sq + bl <= keyMaxSeq kp.
  Proof.
    unfold BT.decode_to_mem. destruct (BT.decode_header _) as [x|[s b]]; [discriminate|].
    destruct (s <? e); [discriminate|].
    destruct ((keyMaxSeq kp <? s) || (keyMaxSeq kp - s <? b)) eqn:Er; [discriminate|].
    destruct (BT.decode_loop _ _ _ _ _ _) as [st|x st| |]; try discriminate.
    destruct (BT.tm_n st =? Z.of_N b)%Z; [|discriminate]. intros E. injection E as <- <- _ _.
    apply Bool.orb_false_iff in Er as [E1 E2]. apply N.ltb_ge in E1. apply N.ltb_ge in E2. lia.
  Qed.

  Lemma key_max_lt : keyMaxSeq kp < 2 ^ 64.
  Proof.
    destruct kpok as (_ & _ & _ & _ & Hm & _). rewrite Hm. change (2 ^ 56) with 72057594037927936.
    change (2 ^ 64) with 18446744073709551616. lia.
  Qed.

  Local Notation rrec := (replay_record rp kp bhl mp tp tcrc compress snappy fgen blockSize ri c).
  Local Notation routs := (replay_outcomes rp kp bhl mp tp tcrc compress snappy fgen blockSize ri c).
  Local Notation flushm := (flush_memdb rp kp mp tp tcrc compress snappy fgen blockSize ri c).
  Local Notation commitrj := (commit_rj jcrc jp rp c).
  Local Notation loop_rw := (rj_loop jcrc jp rp kp bhl mp tp tcrc compress snappy fgen blockSize ri c).
  Local Notation loop_ro := (rj_loop_ro jcrc jp rp kp bhl mp tp tcrc compress snappy fgen blockSize ri c).

  Lemma flush_ext st st' : flushm st = OOk st' -> ext st st'.
  Proof. intros E. apply flush_memdb_facts in E as (S & _ & _ & K & _). apply ext_same; assumption. Qed.

  Lemma commit_rj_ext o j a b : commitrj o j a = OOk b -> ext a b.
  Proof.
    unfold commit_rj. destruct (commit _ _ _ _ o _ (r_c a)) as [[cs rec]|e]; cbn [obind]; [|discriminate].
    intros E; injection E as <-. apply ext_same; reflexivity.
  Qed.

  Lemma replay_record_ext o flush j data st st' : rrec o flush j data st = OOk st' -> ext st st'.
  Proof.
    unfold replay_record.
    destruct (BT.decode_to_mem kp bhl (ibc c) mp data (r_seq st) (r_mdb st) (r_hts st)) as [sq bl d hts|e d hts| |] eqn:Ed;
      try discriminate.
    - pose proof (decode_to_mem_rng _ _ _ _ _ _ _ _ Ed) as Hr.
      apply decode_to_mem_seq in Ed. pose proof key_max_lt as Hk.
      set (st1 := mkRJ _ _ _ _ _ _).
      assert (W : sq + bl < 2 ^ 64) by lia.
      assert (X : ext st st1).
      { exists [(sq, bl)]. split; [reflexivity|]. split.
        - intros x [<-|[]]. exact W.
        - unfold st1. cbn [r_seq]. unfold BT.u64. change 18446744073709551616 with (2 ^ 64).
          rewrite N.mod_small by exact W. lia. }
      destruct (flush && (oo_wbuf o <=? MemDB.mdb_size d)%Z).
      + destruct (flushm st1) as [st2|e2] eqn:Ef; cbn [obind]; [|discriminate].
        destruct (MemDB.mdb_reset mp (r_mdb st2)) as [d0| |]; cbn [of_mres obind]; try discriminate.
        intros E. injection E as <-. eapply ext_trans; [exact X|]. eapply ext_trans; [apply (flush_ext _ _ Ef)|].
        apply ext_same; reflexivity.
      + intros E. injection E as <-. exact X.
    - destruct (oo_strict_j o); [discriminate|]. intros E. injection E as <-. apply ext_same; reflexivity.
  Qed.

  Lemma replay_outcomes_ext o flush j l : forall st st', routs o flush j l st = OOk st' -> ext st st'.
  Proof.
    induction l as [|x l IH]; intros st st'; cbn [replay_outcomes].
    - intros E. injection E as <-. apply ext_refl.
    - destruct x; try discriminate; try (apply IH).
      destruct (rrec o flush j b st) as [st1|e] eqn:E1; cbn [obind]; [|discriminate].
      intros E. eapply ext_trans; [apply (replay_record_ext _ _ _ _ _ _ E1) | apply (IH _ _ E)].
  Qed.

  Lemma loop_rw_ext o js : forall ofd st st' ofd', loop_rw o js ofd st = OOk (st', ofd') -> ext st st'.
  Proof.
    induction js as [|j more IH]; intros ofd st st' ofd'; cbn [rj_loop].
    - intros E. injection E as <- _. apply ext_refl.
    - set (pre := match ofd with None => OOk st | Some old => _ end).
      destruct pre as [st1|e] eqn:Epre; cbn [obind]; [|discriminate].
      assert (X1 : ext st st1).
      { destruct (OpenPathProofs.rj_pre_facts jcrc jp rp kp mp tp tcrc compress snappy fgen blockSize ri c o j ofd st st1 Epre) as (S & _ & _ & K & _).
        apply ext_same; assumption. }
      destruct (MemDB.mdb_reset mp (r_mdb st1)) as [d0| |]; cbn [of_mres obind]; try discriminate.
      destruct (routs o true j _ (set_mdb st1 d0)) as [st2|e] eqn:E2; cbn [obind]; [|discriminate].
      intros E. eapply ext_trans; [exact X1|].
      eapply ext_trans; [apply (ext_same st1 (set_mdb st1 d0)); reflexivity|].
      eapply ext_trans; [apply (replay_outcomes_ext _ _ _ _ _ _ E2) | apply (IH _ _ _ _ E)].
  Qed.

  Lemma loop_ro_ext o js : forall st st', loop_ro o js st = OOk st' -> ext st st'.
  Proof.
    induction js as [|j more IH]; intros st st'; cbn [rj_loop_ro].
    - intros E. injection E as <-. apply ext_refl.
    - destruct (routs o false j _ st) as [st1|e] eqn:E1; cbn [obind]; [|discriminate].
      intros E. eapply ext_trans; [apply (replay_outcomes_ext _ _ _ _ _ _ E1) | apply (IH _ _ E)].
  Qed.

  Lemma remove_all_ext rem : forall st, ext st (remove_all rem st).
  Proof.
    induction rem as [|x rem IH]; intros st; cbn [remove_all]; [apply ext_refl|].
    eapply ext_trans; [|apply IH]. apply ext_same; reflexivity.
  Qed.

  (* openDB read-write: db.seq starts at the session's sequence number and does not decrease *)
  Theorem open_rw_seq o hts cs r :
    open_rw jcrc jp rp kp bhl mp tp tcrc compress snappy fgen blockSize ri c o hts cs = OOk r ->
    nowrap (os_kept r) /\ s_seq (c_sess cs) <= os_seq r.
  Proof.
    unfold open_rw. cbv zeta.
    destruct (MemDB.mdb_new mp) as [d0| |]; cbn [of_mres obind]; try discriminate.
    set (st0 := mkRJ _ SR.sr_empty (s_seq (c_sess cs)) d0 hts []).
    destruct (loop_rw o _ None st0) as [[st1 ofd]|e] eqn:E1; cbn [obind]; [|discriminate].
    apply loop_rw_ext in E1.
    set (fl := match jsel_list (c_sess cs) (c_files cs) with [] => OOk st1 | _ => _ end).
    destruct fl as [st2|e] eqn:E2; cbn [obind]; [|discriminate].
    assert (X2 : ext st1 st2).
    { unfold fl in E2. destruct (jsel_list _ _); [injection E2 as <-; apply ext_refl|].
      destruct (0 <? MemDB.mdb_len (r_mdb st1))%Z; [apply (flush_ext _ _ E2) | injection E2 as <-; apply ext_refl]. }
    cbn [of_mres obind].
    set (st3 := mkRJ _ (r_rec st2) (r_seq st2) (r_mdb st2) (r_hts st2) (r_kept st2)).
    destruct (commitrj o _ st3) as [st4|e] eqn:E4; cbn [obind]; [|discriminate].
    apply commit_rj_ext in E4.
    set (st5 := match ofd with Some old => remove_file _ st4 | None => st4 end).
    assert (X5 : ext st4 st5) by (unfold st5; destruct ofd; [apply ext_same; reflexivity | apply ext_refl]).
    destruct (SW.janitor _ _) as [ts|rem]; [discriminate|].
    intros E. injection E as <-. cbn [os_kept os_seq].
    assert (X : ext st0 (remove_all rem st5)).
    { eapply ext_trans; [exact E1|]. eapply ext_trans; [exact X2|].
      eapply ext_trans; [apply (ext_same st2 st3); reflexivity|].
      eapply ext_trans; [exact E4|]. eapply ext_trans; [exact X5|apply remove_all_ext]. }
    destruct X as (l & K & Nl & S). unfold st0 in K, S. cbn [r_kept r_seq app] in K, S.
    rewrite K. split; [exact Nl|exact S].
  Qed.

  Theorem open_ro_seq o hts cs r :
    open_ro jcrc jp rp kp bhl mp tp tcrc compress snappy fgen blockSize ri c o hts cs = OOk r ->
    nowrap (os_kept r) /\ s_seq (c_sess cs) <= os_seq r.
  Proof.
    unfold open_ro. cbv zeta.
    destruct (MemDB.mdb_new mp) as [d0| |]; cbn [of_mres obind]; try discriminate.
    destruct (loop_ro o _ _) as [st|e] eqn:E1; cbn [obind]; [|discriminate].
    apply loop_ro_ext in E1. destruct E1 as (l & K & Nl & S). cbn [r_kept r_seq app] in K, S.
    intros E. injection E as <-. cbn [os_kept os_seq]. rewrite K. split; [exact Nl|exact S].
  Qed.
End SeqMono.

Lemma nodup_table_files fs : NoDup (map fst fs) -> NoDup (table_files fs).
Proof.
  intros H. unfold table_files.
  assert (Hl : NoDup (f_list fs)) by (eapply Permutation_NoDup; [apply f_list_perm | exact H]).
  induction Hl as [|[t n] l Hx Hl IH]; [constructor|].
  cbn [filter fst]. destruct t; try exact IH.
  cbn [map snd]. constructor; [|exact IH].
  intros Hin. apply in_map_iff in Hin as ([t' n'] & E & Hf). apply filter_In in Hf as [Hin' Ht].
  cbn [fst snd] in *. destruct t'; try discriminate. subst n'. contradiction.
Qed.

Lemma rename_lookup (fs : files) tmpn num nd x : x <> (SW.FTable, num) -> fst x <> SW.FTemp ->
  f_lookup (f_set (f_del (f_set fs (SW.FTemp, tmpn) nd) (SW.FTemp, tmpn)) (SW.FTable, num) nd) x = f_lookup fs x.
Proof.
  intros Hx Ht. rewrite f_lookup_set_other by exact Hx.
  assert (Hx2 : x <> (SW.FTemp, tmpn)) by (intros ->; apply Ht; reflexivity).
  rewrite f_lookup_del_other by exact Hx2. rewrite f_lookup_set_other by exact Hx2. reflexivity.
Qed.

Section Whole.
  Variable jcrc : bytes -> N.
  Variable jp : Journal.jparams.
  Variable rp : SR.rparams.
  Variable kp : kparams.
  Hypothesis kpok : kparams_ok kp.
  Variable bhl : N.
  Variable mp : MemDB.mparams.
  Variable tp : tparams.
  Variable tcrc : bytes -> N.
  Variable compress : bytes -> bytes.
  Variable decompress : bytes -> option bytes.
  Variable fname : option bytes.
  Variable ufc : bytes -> N -> bytes -> bool.
  Variable verify : bool.
  Variable wo : WP.wopts.
  Variable fgen : option (bytes * (list (N * list bytes) -> bytes)).
  Variable c : comparer.

  Local Notation one := (recover_one_bytes rp kp tp tcrc compress decompress fname ufc verify wo c).
  Local Notation loop := (recover_loop rp kp tp tcrc compress decompress fname ufc verify wo c).
  Local Notation scanb := (scan tp tcrc decompress fname ufc verify c).
  Local Notation cblocksb := (cblocks_of tp tcrc decompress fname ufc verify c).

  Definition img_file (fs : files) (n : N) : bytes :=
    match f_lookup fs (SW.FTable, n) with Some d => d | None => [] end.

  (* the log line of one file is a function of the file's bytes (and StrictRecovery) *)
  Definition stat_of (strict : bool) (num : N) (data : bytes) (all : list (bytes * bytes)) (s : tstat) : Prop :=
    let g := good_of kp all in
    let corrupted := (0 <? N.of_nat (length all) - N.of_nat (length g)) || (0 <? cblocksb data) in
    ts_num s = num /\ ts_good s = N.of_nat (length g) /\
    ts_ckeys s = N.of_nat (length all) - N.of_nat (length g) /\ ts_cblocks s = cblocksb data /\
    ts_seq s = tseq_of kp g /\
    ts_verdict s = (if (strict && corrupted) || match g with [] => true | _ => false end then TDropped
                    else if corrupted then TRebuilt else TKept).

  Lemma one_facts strict st num st' : one strict st num = OOk st' ->
    exists all s, scanb (img_file (c_files (rb_c st)) num) = Some all /\
      stat_of strict num (img_file (c_files (rb_c st)) num) all s /\
      rb_stats st' = rb_stats st ++ [s] /\
      rb_maxseq st <= rb_maxseq st' /\
      (stat_kept s = true -> ts_seq s <= rb_maxseq st') /\
      (forall x, x <> (SW.FTable, num) -> fst x <> SW.FTemp ->
                 f_lookup (c_files (rb_c st')) x = f_lookup (c_files (rb_c st)) x).
  Proof.
    unfold recover_one_bytes, img_file. cbv zeta.
    set (data := match f_lookup (c_files (rb_c st)) (SW.FTable, num) with Some d => d | None => [] end).
    destruct (scanb data) as [all|] eqn:Hs; [|discriminate].
    set (g := good_of kp all).
    set (corrupted := (0 <? N.of_nat (length all) - N.of_nat (length g)) || (0 <? cblocksb data)).
    intros E. exists all.
    destruct (strict && corrupted) eqn:Esc.
    { injection E as <-. eexists. split; [reflexivity|]. refine (conj _ (conj eq_refl _)).
      { unfold stat_of. cbv zeta. fold g. fold corrupted. rewrite Esc. cbn [orb ts_num ts_good ts_ckeys ts_cblocks ts_seq ts_verdict].
        repeat split; reflexivity. }
      cbn [rb_stats rb_maxseq rb_c]. split; [lia|]. split; [discriminate|]. reflexivity. }
    destruct g as [|kv0 gr] eqn:Eg.
    { injection E as <-. eexists. split; [reflexivity|]. refine (conj _ (conj eq_refl _)).
      { unfold stat_of. cbv zeta. fold g. rewrite Eg. fold corrupted. rewrite Esc. cbn [orb ts_num ts_good ts_ckeys ts_cblocks ts_seq ts_verdict].
        repeat split; reflexivity. }
      cbn [rb_stats rb_maxseq rb_c]. split; [lia|]. split; [discriminate|]. reflexivity. }
    destruct corrupted eqn:Ec.
    - destruct (WP.table_bytes c kp tp tcrc compress wo (kv0 :: gr)) as [nd|]; [|discriminate].
      injection E as <-. eexists. split; [reflexivity|]. refine (conj _ (conj eq_refl _)).
      { unfold stat_of. cbv zeta. fold g. rewrite Eg. fold corrupted. rewrite Ec, Esc. cbn [orb ts_num ts_good ts_ckeys ts_cblocks ts_seq ts_verdict].
        repeat split; reflexivity. }
      cbn [rb_stats rb_maxseq rb_c ts_seq set_files c_files]. rewrite ltb_max. split; [lia|]. split; [lia|].
      intros x Hx Ht. apply rename_lookup; assumption.
    - injection E as <-. eexists. split; [reflexivity|]. refine (conj _ (conj eq_refl _)).
      { unfold stat_of. cbv zeta. fold g. rewrite Eg. fold corrupted. rewrite Ec, Esc. cbn [orb ts_num ts_good ts_ckeys ts_cblocks ts_seq ts_verdict].
        repeat split; reflexivity. }
      cbn [rb_stats rb_maxseq rb_c ts_seq]. rewrite ltb_max. split; [lia|]. split; [lia|]. reflexivity.
  Qed.

  Definition stat_fact (strict : bool) (fs0 : files) (bound : N) (s : tstat) : Prop :=
    exists all, scanb (img_file fs0 (ts_num s)) = Some all /\
      stat_of strict (ts_num s) (img_file fs0 (ts_num s)) all s /\
      (stat_kept s = true -> ts_seq s <= bound).

  Lemma stat_fact_mono strict fs0 b1 b2 s : b1 <= b2 -> stat_fact strict fs0 b1 s -> stat_fact strict fs0 b2 s.
  Proof. intros Hb (all & A & B & C). exists all. split; [exact A|]. split; [exact B|]. intros H. specialize (C H). lia. Qed.

  Lemma loop_facts strict fs0 : forall nums st st', NoDup nums ->
    loop strict nums st = OOk st' ->
    (forall n, In n nums -> f_lookup (c_files (rb_c st)) (SW.FTable, n) = f_lookup fs0 (SW.FTable, n)) ->
    exists ss, rb_stats st' = rb_stats st ++ ss /\ map ts_num ss = nums /\ rb_maxseq st <= rb_maxseq st' /\
      Forall (stat_fact strict fs0 (rb_maxseq st')) ss.
  Proof.
    induction nums as [|num r IH]; intros st st' Hnd; cbn [recover_loop].
    - intros E _. injection E as <-. exists []. split; [symmetry; apply app_nil_r|]. split; [reflexivity|]. split; [lia|constructor].
    - destruct (one strict st num) as [st1|e] eqn:E1; cbn [obind]; [|discriminate].
      intros E Hf. apply one_facts in E1 as (all & s & Hs & Hst & Hss & Hm & Hk & Hfiles).
      inversion Hnd as [|? ? Hnotin Hnd']; subst.
      destruct (IH st1 st' Hnd' E) as (ss & Kss & Knums & Km & Kall).
      { intros n Hn. rewrite Hfiles; [apply Hf; right; exact Hn| |discriminate].
        intros En. injection En as ->. contradiction. }
      exists (s :: ss). split; [rewrite Kss, Hss, <- app_assoc; reflexivity|].
      assert (En : ts_num s = num) by (exact (proj1 Hst)).
      split; [cbn [map]; rewrite En, Knums; reflexivity|]. split; [lia|].
      constructor; [|exact Kall].
      exists all. unfold img_file in *. rewrite En. rewrite <- (Hf num (or_introl eq_refl)).
      split; [exact Hs|]. split; [exact Hst|]. intros H. specialize (Hk H). lia.
  Qed.

  Theorem recover_seq_above_all o strict hts img r :
    NoDup (map fst (si_files img)) ->
    recover_bytes jcrc jp rp kp bhl mp tp tcrc compress decompress fname ufc verify wo fgen c o strict hts img = OOk r ->
    map ts_num (rr_stats r) = table_files (si_files img) /\
    rr_maxseq r <= os_seq (rr_state r) /\
    forall s, In s (rr_stats r) ->
      exists all, scanb (img_file (si_files img) (ts_num s)) = Some all /\
        stat_of strict (ts_num s) (img_file (si_files img) (ts_num s)) all s /\
        (stat_kept s = true -> ts_seq s <= rr_maxseq r /\
           forall kv, In kv (good_of kp all) -> key_seq kp (fst kv) <= os_seq (rr_state r)).
  Proof.
    intros Hnd. unfold recover_bytes, recover_tables_bytes. cbv zeta.
    set (nums := table_files (si_files img)).
    set (st0 := mkRB _ SR.sr_empty 0 0 []).
    destruct (loop strict nums st0) as [st|e] eqn:El; cbn [obind]; [|discriminate].
    destruct (new_manifest _ _ _ _ _ _ (rb_c st)) as [[c1 r1]|e] eqn:E1; cbn [obind]; [|discriminate].
    destruct (commit _ _ _ _ o _ (fst (c1, r1))) as [[c2 r2]|e] eqn:E2; cbn [obind fst]; [|discriminate].
    apply (commit_seq _ _ _ _ (rb_maxseq st)) in E2; [|apply seqset_set_seq].
    destruct (loop_facts strict (si_files img) nums st0 st (nodup_table_files _ Hnd) El) as (ss & Kss & Knums & _ & Kall).
    { intros n _. reflexivity. }
    unfold st0 in Kss. cbn [rb_stats app] in Kss.
    set (opn := if oo_ro o then _ else _).
    destruct opn as [s|e] eqn:Eo; cbn [obind]; [|discriminate].
    intros E. injection E as <-. cbn [rr_stats rr_maxseq rr_state].
    assert (Hseq : rb_maxseq st <= os_seq s).
    { rewrite <- E2. unfold opn in Eo. destruct (oo_ro o).
      - eapply proj2. eapply open_ro_seq; [exact kpok|exact Eo].
      - eapply proj2. eapply open_rw_seq; [exact kpok|exact Eo]. }
    split; [rewrite Kss; exact Knums|]. split; [exact Hseq|].
    intros x Hx. rewrite Kss in Hx. rewrite Forall_forall in Kall. destruct (Kall x Hx) as (all & A & B & C).
    exists all. split; [exact A|]. split; [exact B|]. intros Hk. specialize (C Hk). split; [exact C|].
    intros kv Hkv. pose proof (tseq_above_all kp (good_of kp all) kv Hkv) as T.
    destruct B as (_ & _ & _ & _ & Bs & _). rewrite <- Bs in T. lia.
  Qed.
End Whole.
