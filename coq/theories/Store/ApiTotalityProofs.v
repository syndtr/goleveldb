(* Store/ApiTotalityProofs.v -- what the totality table (Store/ApiTotality.v) says, for EVERY entry point and every
   argument class, whether the harness has a case for it or not. *)
From GL Require Import Store.ApiTotality.
From Coq Require Import List NArith String Bool.
Import ListNotations.
Open Scope string_scope.
Open Scope N_scope.

Lemma lookup_row_in : forall t e ex, lookup_row t e = Some ex -> In (e, ex) t.
Proof.
  induction t as [|[n x] t IH]; intros e ex H; cbn in H; [discriminate|].
  destruct (String.eqb n e) eqn:E.
  - apply String.eqb_eq in E. inversion H. subst. left. reflexivity.
  - right. apply IH. exact H.
Qed.

Lemma lookup_exc_in : forall ex c m, lookup_exc ex c = Some m -> In (c, m) ex.
Proof.
  induction ex as [|[n x] ex IH]; intros c m H; cbn in H; [discriminate|].
  destruct (String.eqb n c) eqn:E.
  - apply String.eqb_eq in E. inversion H. subst. left. reflexivity.
  - right. apply IH. exact H.
Qed.

Lemma exception_listed : forall e ex c m,
  lookup_row api_totality_table e = Some ex -> lookup_exc ex c = Some m -> In (e, c, m) all_exceptions.
Proof.
  intros e ex c m Hr Hc. unfold all_exceptions. apply in_flat_map.
  exists (e, ex). split; [apply lookup_row_in; exact Hr|].
  cbn [fst snd]. apply in_map_iff. exists (c, m). split; [reflexivity|apply lookup_exc_in; exact Hc].
Qed.

Lemma table_no_hang_ok : table_no_hang = true.
Proof. vm_compute. reflexivity. Qed.

Lemma table_died_ok : table_died_only_option_sizes = true.
Proof. vm_compute. reflexivity. Qed.

Lemma table_masks_ok : table_masks_sane = true.
Proof. vm_compute. reflexivity. Qed.

Lemma table_rows_distinct_ok : table_rows_distinct = true.
Proof. vm_compute. reflexivity. Qed.

(* 1. no entry point, with no argument, is allowed to hang *)
Lemma api_never_hangs : forall e c, outcome_allowed e c oc_hang = false.
Proof.
  intros e c. unfold outcome_allowed, allowed_mask.
  destruct (lookup_row api_totality_table e) as [ex|] eqn:Hr; [|reflexivity].
  destruct (lookup_exc ex c) as [m|] eqn:Hc; [|reflexivity].
  pose proof (exception_listed _ _ _ _ Hr Hc) as Hin.
  pose proof table_no_hang_ok as Hk. unfold table_no_hang in Hk.
  rewrite forallb_forall in Hk. specialize (Hk _ Hin). cbn [snd] in Hk.
  apply negb_true_iff in Hk. exact Hk.
Qed.

(* 2. the death of the process is allowed for one class of one entry point only: Open with an option that is a size in
      bytes set to an extreme value *)
Lemma api_died_only_option_sizes : forall e c,
  outcome_allowed e c oc_died = true -> e = "leveldb.Open" /\ c = "option extreme (a size in bytes)".
Proof.
  intros e c. unfold outcome_allowed, allowed_mask.
  destruct (lookup_row api_totality_table e) as [ex|] eqn:Hr; [|discriminate].
  destruct (lookup_exc ex c) as [m|] eqn:Hc; [|vm_compute; discriminate].
  intros Hb.
  pose proof (exception_listed _ _ _ _ Hr Hc) as Hin.
  pose proof table_died_ok as Hk. unfold table_died_only_option_sizes in Hk.
  rewrite forallb_forall in Hk. specialize (Hk _ Hin). cbn [fst snd] in Hk.
  rewrite Hb in Hk. cbn [negb orb] in Hk.
  apply andb_true_iff in Hk. destruct Hk as [H1 H2].
  apply String.eqb_eq in H1. apply String.eqb_eq in H2. split; assumption.
Qed.

(* 3. an argument class that is not listed for its entry point RETURNS: the allowed outcomes are exactly ok and error *)
Lemma api_default_returns : forall e ex c o,
  lookup_row api_totality_table e = Some ex -> lookup_exc ex c = None ->
  (outcome_allowed e c o = true <-> o = oc_ok \/ o = oc_error).
Proof.
  intros e ex c o Hr Hc. unfold outcome_allowed, allowed_mask. rewrite Hr, Hc.
  unfold m_ret, oc_ok, oc_error. split.
  - intros H. destruct o as [|p]; [left; reflexivity|].
    destruct p as [p|p|]; [| |right; reflexivity]; exfalso.
    + destruct p; cbn in H; discriminate.
    + destruct p; cbn in H; discriminate.
  - intros [H|H]; subst o; reflexivity.
Qed.

(* 3a. the bloom filter entry points of the repaired leveldb/filter/bloom.go: for NO argument class may
       NewBloomFilter, NewGenerator, Add or Contains panic or allocate hugely, and Generate may not panic for any
       bitsPerKey (negative, zero, huge): only a nil Buffer is a documented misuse, and a huge bitsPerKey is the size
       the caller asks for (at most the ceiling of 2^32-8 bits = 512 MiB: outcome class 4 next to "returns") *)
Lemma api_bloom_must_return : forall c,
  outcome_allowed "filter.NewBloomFilter" c oc_panic = false /\ outcome_allowed "filter.NewBloomFilter" c oc_alloc = false /\
  outcome_allowed "filter.Filter.Contains" c oc_panic = false /\ outcome_allowed "filter.Filter.Contains" c oc_alloc = false /\
  outcome_allowed "filter.FilterGenerator.Add" c oc_panic = false /\
  (c <> "required argument nil" -> outcome_allowed "filter.FilterGenerator.Generate" c oc_panic = false) /\
  (c <> "required argument nil" -> c <> "n huge" -> outcome_allowed "filter.FilterGenerator.Generate" c oc_alloc = false).
Proof.
  intros c. repeat split; try reflexivity.
  - intros H1. unfold outcome_allowed, allowed_mask.
    change (lookup_row api_totality_table "filter.FilterGenerator.Generate") with (Some [("required argument nil", 7); ("n huge", 19)]).
    cbn [lookup_exc]. destruct (String.eqb_spec "required argument nil" c) as [E|_]; [congruence|].
    destruct (String.eqb "n huge" c); reflexivity.
  - intros H1 H2. unfold outcome_allowed, allowed_mask.
    change (lookup_row api_totality_table "filter.FilterGenerator.Generate") with (Some [("required argument nil", 7); ("n huge", 19)]).
    cbn [lookup_exc]. destruct (String.eqb_spec "required argument nil" c) as [E|_]; [congruence|].
    destruct (String.eqb_spec "n huge" c) as [E|_]; [congruence|reflexivity].
Qed.

(* 4. an entry point without a row allows nothing: every observation of it is a mismatch *)
Lemma api_unknown_entry_rejected : forall e c o,
  lookup_row api_totality_table e = None -> outcome_allowed e c o = false.
Proof. intros e c o H. unfold outcome_allowed, allowed_mask. rewrite H. reflexivity. Qed.
