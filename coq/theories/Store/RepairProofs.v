(* Store/RepairProofs.v — proofs about the model of leveldb.Recover (Store/Repair.v):
   - moving every table to level 0 changes no read (all_at_level0_equiv);
   - the state Recover builds is well-formed and holds exactly the entries it could read plus the journal's
     (recover_spec), hence on a settled DB it answers every read as before (recover_settled) and with damaged
     blocks it returns every surviving entry that is the newest of its key and invents nothing
     (recover_damaged). *)
From GL Require Import Base.Order Base.OrderProofs Codec.IKey Codec.IKeyProofs Lsm.Lsm Lsm.Compact Lsm.LsmProofs
  Lsm.CompactProofs Lsm.ReorgProofs Mem.ListLemmas Store.Repair.
From GL Require Mem.ListLemmas.
From Coq Require Import ZArith Lia Permutation.

Inductive sub {A} : list A -> list A -> Prop :=
| sub_nil : sub [] []
| sub_skip x l1 l2 : sub l1 l2 -> sub l1 (x :: l2)
| sub_keep x l1 l2 : sub l1 l2 -> sub (x :: l1) (x :: l2).

Lemma sub_refl {A} (l : list A) : sub l l.
Proof. induction l; constructor; assumption. Qed.

Lemma sub_nil_l {A} (l : list A) : sub [] l.
Proof. induction l; constructor; assumption. Qed.

Lemma sub_app {A} (a a' b b' : list A) : sub a a' -> sub b b' -> sub (a ++ b) (a' ++ b').
Proof. intros H1 H2. induction H1; cbn [app]; try constructor; assumption. Qed.

Lemma sub_trans {A} (l1 l2 l3 : list A) : sub l1 l2 -> sub l2 l3 -> sub l1 l3.
Proof.
  intros H1 H2. revert l1 H1. induction H2; intros l0 H1.
  - exact H1.
  - apply sub_skip. apply IHsub. exact H1.
  - inversion H1; subst.
    + apply sub_skip. apply IHsub. assumption.
    + apply sub_keep. apply IHsub. assumption.
Qed.

Lemma sub_filter {A} (q : A -> bool) (l : list A) : sub (filter q l) l.
Proof. induction l as [|x l IH]; cbn [filter]; [constructor|]. destruct (q x); constructor; exact IH. Qed.

Lemma sub_map {A B} (f : A -> B) (l1 l2 : list A) : sub l1 l2 -> sub (map f l1) (map f l2).
Proof. induction 1; cbn [map]; constructor; assumption. Qed.

Lemma sub_In {A} (l1 l2 : list A) x : sub l1 l2 -> In x l1 -> In x l2.
Proof.
  induction 1; intros H0; [exact H0|right; auto|].
  destruct H0 as [->|H0]; [left; reflexivity|right; auto].
Qed.

Lemma sub_NoDup {A} (l1 l2 : list A) : sub l1 l2 -> NoDup l2 -> NoDup l1.
Proof.
  induction 1; intros Hn; [exact Hn| |].
  - inversion Hn; subst. auto.
  - inversion Hn as [|? ? Hx Hn']; subst. constructor; [|auto].
    intros Hi. apply Hx. eapply sub_In; eauto.
Qed.

Lemma sub_concat_filter {A B} (g : A -> list B) (q : A -> bool) (l : list A) :
  sub (concat (map g (filter q l))) (concat (map g l)).
Proof.
  induction l as [|x l IH]; cbn [filter map concat]; [constructor|].
  destruct (q x); cbn [map concat].
  - apply sub_app; [apply sub_refl|exact IH].
  - change (concat (map g (filter q l))) with ([] ++ concat (map g (filter q l))).
    apply sub_app; [apply sub_nil_l|exact IH].
Qed.

Lemma sub_concat_map {A B} (g h : A -> list B) (l : list A) :
  (forall x, In x l -> sub (g x) (h x)) -> sub (concat (map g l)) (concat (map h l)).
Proof.
  induction l as [|x l IH]; intros H; cbn [map concat]; [constructor|].
  apply sub_app; [apply H; left; reflexivity|apply IH; intros y Hy; apply H; right; exact Hy].
Qed.

Lemma ins_by_perm {A} (le : A -> A -> bool) x l : Permutation (x :: l) (ins_by le x l).
Proof.
  induction l as [|y l IH]; cbn [ins_by]; [reflexivity|].
  destruct (le x y); [reflexivity|].
  etransitivity; [apply perm_swap|]. apply perm_skip. exact IH.
Qed.

Lemma sort_by_perm {A} (le : A -> A -> bool) l : Permutation l (sort_by le l).
Proof.
  induction l as [|x l IH]; cbn [sort_by fold_right]; [reflexivity|]. fold (sort_by le l).
  etransitivity; [apply perm_skip; exact IH|]. apply ins_by_perm.
Qed.

Lemma perm_concat_map {A B} (g : A -> list B) l l' :
  Permutation l l' -> Permutation (concat (map g l)) (concat (map g l')).
Proof.
  induction 1; cbn [map concat].
  - reflexivity.
  - apply Permutation_app_head. assumption.
  - rewrite !app_assoc. apply Permutation_app_tail. apply Permutation_app_comm.
  - etransitivity; eassumption.
Qed.

Section Proofs.
  Variable c : comparer.
  Hypothesis ok : comparer_ok c.
  Variable p : kparams.
  Hypothesis pok : kparams_ok p.

  Notation ssorted := (ssorted c).
  Notation kinds_ok := (kinds_ok p).
  Notation wf_state := (wf_state c p).
  Notation tables_ok := (tables_ok c p).
  Notation table_ok := (table_ok c p).
  Notation lsm_get := (lsm_get c p).
  Notation newest := (newest c).
  Notation entries_of ts := (concat (map t_entries ts)).

  Lemma sub_ssorted l1 l2 : sub l1 l2 -> ssorted l2 -> ssorted l1.
  Proof.
    induction 1; intros Hs; [exact Hs| |].
    - destruct Hs as [_ Hs]. auto.
    - destruct Hs as [Hall Hs]. split; [|auto].
      rewrite Forall_forall in *. intros y Hy. apply Hall. eapply sub_In; eauto.
  Qed.

  Lemma sub_kinds l1 l2 : sub l1 l2 -> kinds_ok l2 -> kinds_ok l1.
  Proof.
    unfold LsmProofs.kinds_ok. rewrite !Forall_forall. intros Hs H x Hx. apply H. eapply sub_In; eauto.
  Qed.

  Lemma nodup_uniq_in l : NoDup (map keyseq l) -> uniq_in l.
  Proof.
    intros Hn a b Ha Hb Eu Es. apply (ListLemmas.NoDup_map_inj keyseq l a b Hn Ha Hb). unfold keyseq. congruence.
  Qed.

  Lemma perm_same_elems (l1 l2 : list entry) : Permutation l1 l2 -> same_elems l1 l2.
  Proof. intros H x. split; intros Hx; [eapply Permutation_in; eauto|eapply Permutation_in; [symmetry|]; eauto]. Qed.

  Definition l0_state (ts : list table) : lstate :=
    {| st_mem := []; st_frozen := []; st_aux := []; st_levels := [ts] |}.

  Lemma newer_nil_l y : newer_thanP [] y.
  Proof. intros a b []. Qed.

  Lemma l0_state_wf ts : tables_ok ts -> NoDup (map keyseq (entries_of ts)) -> wf_state (l0_state ts).
  Proof.
    intros Hok Hnd. constructor; cbn [l0_state st_mem st_frozen st_aux st_levels hd tl].
    - split; [exact I|constructor].
    - split; [exact I|constructor].
    - split; [constructor|]. unfold uniq, LsmProofs.level_entries. cbn. constructor.
    - split; [exact Hok|exact Hnd].
    - constructor.
    - unfold comps, l0_state; cbn [st_mem st_frozen st_aux st_levels map chain_newer].
      assert (N : forall l : list (list entry), Forall (fun y => newer_thanP (@nil entry) y) l).
      { intros l. apply Forall_forall. intros y _. apply newer_nil_l. }
      change (LsmProofs.level_entries []) with (@nil entry).
      repeat split; try apply N. constructor.
  Qed.

  Lemma all_entries_l0 ts : all_entries (l0_state ts) = entries_of ts.
  Proof. unfold all_entries, all_tables, l0_state; cbn. rewrite app_nil_r. reflexivity. Qed.

  Lemma get_same_entries st1 st2 : wf_state st1 -> wf_state st2 -> uniq_in (all_entries st1) ->
    same_elems (all_entries st1) (all_entries st2) ->
    forall k s, lsm_get st1 k s = lsm_get st2 k s.
  Proof.
    intros W1 W2 U SE k s.
    rewrite (get_correct c ok p pok st1 k s W1), (get_correct c ok p pok st2 k s W2).
    rewrite (newest_same_elems c ok k s _ _ U SE). reflexivity.
  Qed.

  Lemma level_entries_concat (lvls : list (list table)) :
    LsmProofs.level_entries (concat lvls) = concat (map LsmProofs.level_entries lvls).
  Proof.
    unfold LsmProofs.level_entries. induction lvls as [|l ls IH]; [reflexivity|].
    cbn [concat map]. rewrite map_app, concat_app, IH. reflexivity.
  Qed.

  Lemma wf_tables_all st : wf_state st -> tables_ok (concat (st_levels st)).
  Proof.
    intros W. destruct W as [_ _ _ [H0 _] Hd _].
    destruct (st_levels st) as [|l0 rest]; [constructor|]. cbn [hd tl concat] in *.
    unfold LsmProofs.tables_ok in *. apply Forall_app. split; [exact H0|].
    induction Hd as [|l ls [Hl _] _ IH]; [constructor|]. cbn [concat]. apply Forall_app. split; assumption.
  Qed.

  Lemma all_entries_flatten st : all_entries (flatten st) = all_entries st.
  Proof. unfold all_entries, all_tables, flatten; cbn. rewrite app_nil_r. reflexivity. Qed.

  Theorem all_at_level0_equiv st : wf_state st ->
    NoDup (map keyseq (entries_of (concat (st_levels st)))) ->
    wf_state (flatten st) /\ forall k s, lsm_get (flatten st) k s = lsm_get st k s.
  Proof.
    intros W Hnd.
    assert (WF : wf_state (flatten st)).
    { pose proof (wf_tables_all st W) as Hall.
      destruct W as [Hm Hf Ha H0 Hd Hch].
      constructor; cbn [flatten st_mem st_frozen st_aux st_levels hd tl]; try assumption.
      - split; [exact Hall|exact Hnd].
      - constructor.
      - unfold comps in *. cbn [flatten st_mem st_frozen st_aux st_levels map] in *.
        cbn [chain_newer] in *. destruct Hch as [Nm [Nf [Na Hch]]].
        inversion Nm as [|? ? Nm1 Nm']; subst. inversion Nm' as [|? ? Nm2 Nm3]; subst.
        inversion Nf as [|? ? Nf1 Nf2]; subst.
        rewrite level_entries_concat.
        repeat split.
        + constructor; [exact Nm1|]. constructor; [exact Nm2|]. constructor; [|constructor].
          apply newer_thanP_concat. exact Nm3.
        + constructor; [exact Nf1|]. constructor; [|constructor]. apply newer_thanP_concat. exact Nf2.
        + constructor; [|constructor]. apply newer_thanP_concat. exact Na.
        + constructor. }
    split; [exact WF|]. intros k s.
    rewrite (get_correct c ok p pok _ k s WF), (get_correct c ok p pok _ k s W), all_entries_flatten.
    reflexivity.
  Qed.

  Notation kept := (kept p).
  Notation good := (good p).
  Definition maxf (m : N) (e : entry) : N := if m <? e_seq e then e_seq e else m.

  (* the table registered for one file, if any *)
  Definition table_for (strict : bool) (f : tfile) : list table :=
    match kept strict f with [] => [] | g => [{| t_num := tf_num f; t_entries := g |}] end.
  Definition tables_of (strict : bool) (fs : list tfile) : list table := concat (map (table_for strict) fs).

  Lemma recover_one_added strict r f : r_added (recover_one p strict r f) = r_added r ++ table_for strict f.
  Proof.
    unfold recover_one, table_for, Repair.kept.
    destruct (strict && ((0 <? ckeys p f) || (0 <? cblocks f))); cbn [r_added]; [rewrite app_nil_r; reflexivity|].
    destruct (Repair.good p f); cbn [r_added]; [rewrite app_nil_r|]; reflexivity.
  Qed.

  Lemma recover_fold_added strict fs : forall r,
    r_added (fold_left (recover_one p strict) fs r) = r_added r ++ tables_of strict fs.
  Proof.
    induction fs as [|f fs IH]; intros r; cbn [fold_left]; unfold tables_of; cbn [map concat];
      [rewrite app_nil_r; reflexivity|].
    rewrite IH, recover_one_added, app_assoc. reflexivity.
  Qed.

  Lemma entries_table_for strict f : entries_of (table_for strict f) = kept strict f.
  Proof.
    unfold table_for. destruct (kept strict f) eqn:E; cbn [map concat t_entries]; [reflexivity|].
    rewrite app_nil_r. reflexivity.
  Qed.

  Lemma entries_tables_of strict fs : entries_of (tables_of strict fs) = concat (map (kept strict) fs).
  Proof.
    unfold tables_of. induction fs as [|f fs IH]; cbn [map concat]; [reflexivity|].
    rewrite map_app, concat_app, entries_table_for, IH. reflexivity.
  Qed.

  Lemma maxf_ge l : forall m, m <= fold_left maxf l m /\ forall e, In e l -> e_seq e <= fold_left maxf l m.
  Proof.
    induction l as [|a l IH]; intros m; cbn [fold_left]; [split; [lia|intros e []]|].
    destruct (IH (maxf m a)) as [H1 H2].
    assert (M : m <= maxf m a /\ e_seq a <= maxf m a) by (unfold maxf; destruct (m <? e_seq a) eqn:E; lia).
    split; [lia|]. intros e [<-|He]; [lia|apply H2; exact He].
  Qed.

  Lemma maxf_le l B : forall m, m <= B -> (forall e, In e l -> e_seq e <= B) -> fold_left maxf l m <= B.
  Proof.
    induction l as [|a l IH]; intros m Hm H; cbn [fold_left]; [exact Hm|].
    apply IH; [|intros e He; apply H; right; exact He].
    assert (e_seq a <= B) by (apply H; left; reflexivity). unfold maxf. destruct (m <? e_seq a); lia.
  Qed.

  Lemma recover_one_maxseq strict r f :
    r_maxseq r <= r_maxseq (recover_one p strict r f) /\
    (forall e, In e (kept strict f) -> e_seq e <= r_maxseq (recover_one p strict r f)) /\
    (forall B, r_maxseq r <= B -> (forall e, In e (kept strict f) -> e_seq e <= B) ->
               r_maxseq (recover_one p strict r f) <= B).
  Proof.
    unfold recover_one, Repair.kept.
    destruct (strict && ((0 <? ckeys p f) || (0 <? cblocks f))); cbn [r_maxseq].
    { split; [lia|]. split; [intros e []|]. intros B H _. exact H. }
    destruct (Repair.good p f) as [|a g] eqn:G; cbn [r_maxseq].
    { split; [lia|]. split; [intros e []|]. intros B H _. exact H. }
    change (tseq (a :: g)) with (fold_left maxf (a :: g) 0). pose proof (maxf_ge (a :: g) 0) as [_ H2].
    split; [|split].
    - destruct (r_maxseq r <? fold_left maxf (a :: g) 0) eqn:E; lia.
    - intros e He. specialize (H2 e He). destruct (r_maxseq r <? fold_left maxf (a :: g) 0) eqn:E; lia.
    - intros B HB H. pose proof (maxf_le (a :: g) B 0 ltac:(lia) H).
      destruct (r_maxseq r <? fold_left maxf (a :: g) 0); lia.
  Qed.

  Lemma recover_fold_maxseq strict fs : forall r,
    r_maxseq r <= r_maxseq (fold_left (recover_one p strict) fs r) /\
    (forall e, In e (concat (map (kept strict) fs)) -> e_seq e <= r_maxseq (fold_left (recover_one p strict) fs r)) /\
    (forall B, r_maxseq r <= B -> (forall e, In e (concat (map (kept strict) fs)) -> e_seq e <= B) ->
               r_maxseq (fold_left (recover_one p strict) fs r) <= B).
  Proof.
    induction fs as [|f fs IH]; intros r; cbn [fold_left map concat].
    { split; [lia|]. split; [intros e []|]. intros B H _. exact H. }
    destruct (recover_one_maxseq strict r f) as [A1 [A2 A3]].
    destruct (IH (recover_one p strict r f)) as [B1 [B2 B3]].
    split; [lia|]. split.
    - intros e He. apply in_app_or in He as [He|He]; [specialize (A2 e He); lia|apply B2; exact He].
    - intros B HB H. apply B3.
      + apply A3; [exact HB|]. intros e He. apply H. apply in_or_app. left; exact He.
      + intros e He. apply H. apply in_or_app. right; exact He.
  Qed.

  (* no batch is rejected: each starts at or above the sequence number reached so far *)
  Fixpoint chain (seq : N) (js : list jbatch) : Prop :=
    match js with
    | [] => True
    | b :: r => seq <= jb_seq b /\ chain (jb_seq b + N.of_nat (length (jb_recs b))) r
    end.
  Fixpoint jend (seq : N) (js : list jbatch) : N :=
    match js with
    | [] => seq
    | b :: r => jend (jb_seq b + N.of_nat (length (jb_recs b))) r
    end.

  Lemma chain_weaken B seq js : chain B js -> seq <= B -> chain seq js.
  Proof. destruct js as [|b r]; cbn [chain]; [auto|]. intros [H1 H2] H. split; [lia|exact H2]. Qed.

  Lemma mem_put_app mem l1 l2 : mem_put c (mem_put c mem l1) l2 = mem_put c mem (l1 ++ l2).
  Proof. unfold mem_put. rewrite fold_left_app. reflexivity. Qed.

  Lemma replay_chain sj js : forall seq mem, chain seq js ->
    replay c sj seq mem js = Some (jend seq js, mem_put c mem (jentries js)).
  Proof.
    induction js as [|b r IH]; intros seq mem H; cbn [replay jend]; [reflexivity|].
    destruct H as [H1 H2].
    replace (jb_seq b <? seq) with false by (symmetry; apply N.ltb_ge; exact H1).
    rewrite (IH _ _ H2). unfold jentries. cbn [map concat]. rewrite mem_put_app. reflexivity.
  Qed.

  Lemma stamp_seq l : forall s e, In e (stamp s l) -> s <= e_seq e /\ e_seq e < s + N.of_nat (length l).
  Proof.
    induction l as [|a l IH]; intros s e H; cbn [stamp] in H; [destruct H|].
    cbn [length]. destruct H as [<-|H]; [cbn [e_seq]; lia|].
    apply IH in H. lia.
  Qed.

  Lemma jend_ge js : forall seq, chain seq js -> seq <= jend seq js.
  Proof.
    induction js as [|b r IH]; intros seq H; cbn [jend]; [lia|].
    destruct H as [H1 H2]. specialize (IH _ H2). lia.
  Qed.

  Lemma jentries_lt js : forall seq, chain seq js -> forall e, In e (jentries js) -> e_seq e < jend seq js.
  Proof.
    induction js as [|b r IH]; intros seq H e He; [destruct He|].
    destruct H as [H1 H2]. unfold jentries in He. cbn [map concat] in He. cbn [jend].
    apply in_app_or in He as [He|He].
    - apply stamp_seq in He. pose proof (jend_ge r _ H2). lia.
    - apply (IH _ H2). exact He.
  Qed.

  Lemma ins_perm e l : Permutation (e :: l) (ins c e l).
  Proof.
    induction l as [|y l IH]; cbn [ins]; [reflexivity|].
    destruct (ecmp c e y); try reflexivity.
    etransitivity; [apply perm_swap|]. apply perm_skip. exact IH.
  Qed.

  Lemma mem_put_perm l : forall mem, Permutation (mem ++ l) (mem_put c mem l).
  Proof.
    induction l as [|a l IH]; intros mem; cbn [mem_put fold_left]; [rewrite app_nil_r; reflexivity|].
    fold (mem_put c (ins c a mem) l). etransitivity; [|apply IH].
    etransitivity; [symmetry; apply Permutation_middle|].
    change (a :: mem ++ l) with ((a :: mem) ++ l). apply Permutation_app_tail. apply ins_perm.
  Qed.

  Lemma perm_kinds l1 l2 : Permutation l1 l2 -> kinds_ok l1 -> kinds_ok l2.
  Proof. unfold LsmProofs.kinds_ok. intros H. apply Permutation_Forall. exact H. Qed.

  Lemma mem_put_sorted l : forall mem, ssorted mem -> kinds_ok (mem ++ l) -> NoDup (map keyseq (mem ++ l)) ->
    ssorted (mem_put c mem l).
  Proof.
    induction l as [|a l IH]; intros mem Hs Hk Hn; cbn [mem_put fold_left]; [exact Hs|].
    fold (mem_put c (ins c a mem) l).
    assert (P : Permutation (mem ++ a :: l) (ins c a mem ++ l)).
    { etransitivity; [symmetry; apply Permutation_middle|].
      change (a :: mem ++ l) with ((a :: mem) ++ l). apply Permutation_app_tail. apply ins_perm. }
    apply IH.
    - apply (ins_sorted c ok); [exact Hs|]. intros x Hx E.
      apply (ecmp_eq_keyseq c ok p pok) in E as [E1 E2].
      + rewrite map_app in Hn. cbn [map] in Hn. apply NoDup_remove_2 in Hn. apply Hn.
        apply in_or_app. left. replace (keyseq a) with (keyseq x) by (unfold keyseq; congruence).
        apply in_map. exact Hx.
      + apply (kinds_pair p (mem ++ a :: l)); [exact Hk| |].
        * apply in_or_app. right. left. reflexivity.
        * apply in_or_app. left. exact Hx.
    - eapply perm_kinds; eauto.
    - eapply Permutation_NoDup; [apply Permutation_map; exact P|exact Hn].
  Qed.

  Lemma stamp_kinds l : forall s, kinds_ok l -> kinds_ok (stamp s l).
  Proof.
    unfold LsmProofs.kinds_ok. induction l as [|a l IH]; intros s H; cbn [stamp]; [constructor|].
    inversion H; subst. constructor; [cbn [e_kind]; assumption|apply IH; assumption].
  Qed.

  Definition files_ok (fs : list tfile) : Prop :=
    Forall (fun f => ssorted (file_entries f) /\ kinds_ok (file_entries f)) fs.
  (* every entry stored before any damage / every entry Recover can still read *)
  Definition orig_entries (fs : list tfile) (js : list jbatch) : list entry :=
    concat (map file_entries fs) ++ jentries js.
  Definition surviving (strict : bool) (fs : list tfile) (js : list jbatch) : list entry :=
    concat (map (kept strict) fs) ++ jentries js.

  Lemma kept_sub strict f : sub (kept strict f) (file_entries f).
  Proof.
    unfold Repair.kept. destruct (strict && ((0 <? ckeys p f) || (0 <? cblocks f))); [apply sub_nil_l|].
    unfold Repair.good. eapply sub_trans; [apply sub_filter|].
    unfold readable, file_entries. apply sub_concat_filter.
  Qed.

  Lemma surviving_sub strict fs js : sub (surviving strict fs js) (orig_entries fs js).
  Proof.
    apply sub_app; [|apply sub_refl]. apply sub_concat_map. intros f _. apply kept_sub.
  Qed.

  Lemma table_for_ok strict f : ssorted (file_entries f) -> kinds_ok (file_entries f) ->
    tables_ok (table_for strict f).
  Proof.
    intros Hs Hk. unfold table_for. destruct (kept strict f) as [|a g] eqn:E; [constructor|].
    constructor; [|constructor]. unfold LsmProofs.table_ok. cbn [t_entries]. rewrite <- E. split.
    - eapply sub_ssorted; [apply kept_sub|exact Hs].
    - eapply sub_kinds; [apply kept_sub|exact Hk].
  Qed.

  Lemma tables_of_ok strict fs : files_ok fs -> tables_ok (tables_of strict fs).
  Proof.
    unfold files_ok, tables_of. induction 1 as [|f fs [Hs Hk] _ IH]; cbn [map concat]; [constructor|].
    unfold LsmProofs.tables_ok in *. apply Forall_app. split; [apply table_for_ok; assumption|exact IH].
  Qed.

  Theorem recover_spec strict sj fs js next :
    files_ok fs ->
    kinds_ok (jentries js) ->
    NoDup (map keyseq (orig_entries fs js)) ->
    (exists B, (forall e, In e (concat (map file_entries fs)) -> e_seq e <= B) /\ chain B js) ->
    exists st' seq', recover c p strict sj fs js next = ROk st' seq' /\ wf_state st' /\
      Permutation (all_entries st') (surviving strict fs js) /\
      (forall e, In e (surviving strict fs js) -> e_seq e <= seq').
  Proof.
    intros Hf Hjk Hnd [B [HB Hch]].
    assert (PF : Permutation fs (sort_fds fs)) by apply sort_by_perm.
    assert (Hnd' : NoDup (map keyseq (surviving strict fs js))).
    { eapply sub_NoDup; [apply sub_map; apply surviving_sub|exact Hnd]. }
    unfold recover, recover_tables.
    pose proof (recover_fold_added strict (sort_fds fs) r_init) as HA. cbn [r_init r_added app] in HA.
    pose proof (recover_fold_maxseq strict (sort_fds fs) r_init) as [_ [HM1 HM2]].
    set (r := fold_left (recover_one p strict) (sort_fds fs) r_init) in *.
    rewrite HA. set (T := tables_of strict (sort_fds fs)).
    assert (PT : Permutation (entries_of T) (concat (map (kept strict) fs))).
    { unfold T. rewrite entries_tables_of. apply perm_concat_map. symmetry. exact PF. }
    assert (TK : tables_ok T).
    { unfold T. apply tables_of_ok. unfold files_ok in *. eapply Permutation_Forall; eauto. }
    assert (MB : r_maxseq r <= B).
    { apply HM2; [cbn; lia|]. intros e He. apply HB.
      assert (He' : In e (concat (map (kept strict) fs))).
      { eapply Permutation_in; [apply perm_concat_map; symmetry; exact PF|exact He]. }
      apply in_concat in He' as [l [Hl He']]. apply in_map_iff in Hl as [f [<- Hf']].
      apply in_concat. exists (file_entries f). split; [apply in_map; exact Hf'|].
      eapply sub_In; [apply kept_sub|exact He']. }
    rewrite (replay_chain sj js _ [] (chain_weaken _ _ _ Hch MB)).
    set (mem := mem_put c [] (jentries js)).
    assert (PM : Permutation (jentries js) mem) by (apply (mem_put_perm (jentries js) [])).
    assert (JN : NoDup (map keyseq (jentries js))).
    { eapply sub_NoDup; [apply sub_map|exact Hnd]. unfold orig_entries.
      change (jentries js) with ([] ++ jentries js) at 1. apply sub_app; [apply sub_nil_l|apply sub_refl]. }
    assert (MS : ssorted mem) by (apply (mem_put_sorted (jentries js) []); [exact I|exact Hjk|exact JN]).
    assert (MK : kinds_ok mem) by (eapply perm_kinds; eauto).
    set (l0' := match mem with [] => sort_l0 T | _ :: _ => sort_l0 ({| t_num := next; t_entries := mem |} :: sort_l0 T) end).
    assert (PL : Permutation (entries_of l0') (surviving strict fs js) /\ tables_ok l0').
    { unfold l0', surviving. destruct mem as [|a m] eqn:EM.
      - apply Permutation_sym, Permutation_nil in PM. rewrite PM, app_nil_r. split.
        + etransitivity; [apply perm_concat_map; symmetry; apply sort_by_perm|exact PT].
        + unfold LsmProofs.tables_ok in *. eapply Permutation_Forall; [apply sort_by_perm|exact TK].
      - split.
        + etransitivity; [apply perm_concat_map; symmetry; apply sort_by_perm|]. cbn [map concat t_entries].
          etransitivity; [apply Permutation_app_comm|]. apply Permutation_app; [|symmetry; exact PM].
          etransitivity; [apply perm_concat_map; symmetry; apply sort_by_perm|exact PT].
        + unfold LsmProofs.tables_ok in *. eapply Permutation_Forall; [apply sort_by_perm|].
          constructor; [split; assumption|]. eapply Permutation_Forall; [apply sort_by_perm|exact TK]. }
    destruct PL as [PL TL].
    exists (l0_state l0'), (jend (r_maxseq r) js).
    split; [unfold l0_state, l0'; destruct mem; reflexivity|].
    split; [|split].
    - apply l0_state_wf; [exact TL|]. eapply Permutation_NoDup; [apply Permutation_map; symmetry; exact PL|exact Hnd'].
    - rewrite all_entries_l0. exact PL.
    - intros e He. unfold surviving in He. apply in_app_or in He as [He|He].
      + pose proof (jend_ge js _ (chain_weaken _ _ _ Hch MB)).
        assert (e_seq e <= r_maxseq r); [|lia]. apply HM1.
        eapply Permutation_in; [apply perm_concat_map; exact PF|exact He].
      + pose proof (jentries_lt js _ (chain_weaken _ _ _ Hch MB) e He). lia.
  Qed.

  Definition intact (f : tfile) : Prop := Forall (fun b => fb_damaged b = false) (tf_blocks f).
  Definition table_of_file (f : tfile) : table := {| t_num := tf_num f; t_entries := file_entries f |}.

  Lemma intact_kept strict f : intact f -> (forall e, In e (file_entries f) -> valid p e = true) ->
    kept strict f = file_entries f.
  Proof.
    intros Hi Hv. unfold intact in Hi.
    assert (R : readable f = file_entries f).
    { unfold readable, file_entries. rewrite ListLemmas.filter_all; [reflexivity|]. apply Forall_forall.
      apply (Forall_impl _ (fun b H => f_equal negb H) Hi). }
    assert (G : Repair.good p f = file_entries f).
    { unfold Repair.good. rewrite R. apply ListLemmas.filter_all. exact Hv. }
    assert (CB : cblocks f = 0).
    { unfold cblocks. rewrite (proj2 (filter_nil_iff _ _) Hi). reflexivity. }
    assert (CK : ckeys p f = 0) by (unfold ckeys; rewrite G, R; lia).
    unfold Repair.kept. rewrite CB, CK, G. cbn. rewrite Bool.andb_false_r. reflexivity.
  Qed.

  (* what "a clean, settled shutdown" leaves on storage, relative to the DB state st: no frozen buffer, no
     open transaction, exactly one undamaged file per live table, the journal holding the write buffer's
     contents with sequence numbers above every table entry *)
  Definition settled_image (st : lstate) (fs : list tfile) (js : list jbatch) : Prop :=
    st_frozen st = [] /\ st_aux st = [] /\
    Forall intact fs /\
    Permutation (map table_of_file fs) (concat (st_levels st)) /\
    Permutation (jentries js) (st_mem st) /\
    exists B, (forall e, In e (entries_of (concat (st_levels st))) -> e_seq e <= B) /\ chain B js.

  Theorem recover_settled strict sj st fs js next :
    wf_state st ->
    NoDup (map keyseq (all_entries st)) ->
    (forall e, In e (all_entries st) -> valid p e = true) ->
    settled_image st fs js ->
    exists st' seq', recover c p strict sj fs js next = ROk st' seq' /\ wf_state st' /\
      (forall k s, lsm_get st' k s = lsm_get st k s) /\
      (forall e, In e (all_entries st) -> e_seq e <= seq').
  Proof.
    intros W Hnd Hv [Hfr [Hax [Hint [PT [PJ [B [HB Hch]]]]]]].
    set (tabs := concat (st_levels st)) in *.
    assert (AE : all_entries st = st_mem st ++ entries_of tabs).
    { unfold all_entries, all_tables. rewrite Hfr, Hax. reflexivity. }
    assert (FE : concat (map file_entries fs) = entries_of (map table_of_file fs)).
    { rewrite map_map. reflexivity. }
    assert (PE : Permutation (concat (map file_entries fs)) (entries_of tabs)).
    { rewrite FE. apply perm_concat_map. exact PT. }
    assert (PO : Permutation (orig_entries fs js) (all_entries st)).
    { rewrite AE. unfold orig_entries. etransitivity; [apply Permutation_app_comm|].
      apply Permutation_app; assumption. }
    assert (Hf : files_ok fs).
    { pose proof (wf_tables_all st W) as TA. fold tabs in TA.
      assert (TF : tables_ok (map table_of_file fs)).
      { unfold LsmProofs.tables_ok in *. eapply Permutation_Forall; [symmetry; exact PT|exact TA]. }
      unfold files_ok. unfold LsmProofs.tables_ok in TF. rewrite Forall_map in TF. exact TF. }
    assert (Hjk : kinds_ok (jentries js)).
    { eapply perm_kinds; [symmetry; exact PJ|]. destruct W as [[_ Hk] _ _ _ _ _]. exact Hk. }
    assert (Hnd' : NoDup (map keyseq (orig_entries fs js))).
    { eapply Permutation_NoDup; [apply Permutation_map; symmetry; exact PO|exact Hnd]. }
    assert (HB' : exists B, (forall e, In e (concat (map file_entries fs)) -> e_seq e <= B) /\ chain B js).
    { exists B. split; [|exact Hch]. intros e He. apply HB. eapply Permutation_in; eauto. }
    destruct (recover_spec strict sj fs js next Hf Hjk Hnd' HB') as [st' [seq' [HR [W' [PA HS]]]]].
    assert (SV : surviving strict fs js = orig_entries fs js).
    { unfold surviving, orig_entries. f_equal. f_equal. apply map_ext_in. intros f Hf'.
      apply intact_kept.
      - rewrite Forall_forall in Hint. apply Hint. exact Hf'.
      - intros e He. apply Hv. eapply Permutation_in; [exact PO|]. unfold orig_entries. apply in_or_app. left.
        apply in_concat. exists (file_entries f). split; [apply in_map; exact Hf'|exact He]. }
    rewrite SV in PA, HS.
    exists st', seq'. split; [exact HR|]. split; [exact W'|]. split.
    - intros k s. symmetry. apply get_same_entries; [exact W|exact W'|apply nodup_uniq_in; exact Hnd|].
      apply perm_same_elems. etransitivity; [symmetry; exact PO|symmetry; exact PA].
    - intros e He. apply HS. eapply Permutation_in; [symmetry; exact PO|exact He].
  Qed.

  (* the entry is still readable: it was in the journal, or it sits in an undamaged block of some table
     file (and its key parses) *)
  Definition survives (fs : list tfile) (js : list jbatch) (e : entry) : Prop :=
    In e (jentries js) \/
    exists f b, In f fs /\ In b (tf_blocks f) /\ fb_damaged b = false /\ In e (fb_entries b) /\ valid p e = true.

  Lemma survives_in fs js e : survives fs js e -> In e (surviving false fs js).
  Proof.
    unfold surviving. intros [H|[f [b [Hf [Hb [Hd [He Hv]]]]]]]; apply in_or_app; [right; exact H|left].
    apply in_concat. exists (kept false f). split; [apply in_map; exact Hf|].
    unfold Repair.kept. cbn [andb]. unfold Repair.good. apply filter_In. split; [|exact Hv].
    unfold readable. apply in_concat. exists (fb_entries b). split; [|exact He].
    apply in_map. apply filter_In. split; [exact Hb|]. rewrite Hd. reflexivity.
  Qed.

  (* the newest entry of L for (k, s) is also the newest of any part S of L that still holds it; uniq_in L (one entry
     per user key and sequence number) is what makes the newest entry of S the same entry and not just an equal rank *)
  Lemma newest_subset k s L S e : uniq_in L -> (forall x, In x S -> In x L) ->
    newest k s L None = Some e -> In e S -> newest k s S None = Some e.
  Proof.
    intros U Hsub HL HeS.
    pose proof (newest_max_acc c k s L None e HL) as [ML _].
    apply (newest_in c) in HL as [HL|[HeL Ve]]; [discriminate|].
    destruct (newest k s S None) as [m|] eqn:E.
    - pose proof (newest_max_acc c k s S None m E) as [MS _].
      apply (newest_in c) in E as [E|[HmS Vm]]; [discriminate|].
      f_equal. apply U; [apply Hsub; exact HmS|exact HeL| |].
      + apply (vis_true c ok) in Ve as [U1 _]. apply (vis_true c ok) in Vm as [U2 _]. congruence.
      + assert (e_seq e <= e_seq m) by (apply MS; assumption).
        assert (e_seq m <= e_seq e) by (apply ML; [apply Hsub; exact HmS|exact Vm]). lia.
    - pose proof (newest_none_all c k s S E e HeS). congruence.
  Qed.

  Theorem recover_damaged sj fs js next :
    files_ok fs ->
    kinds_ok (jentries js) ->
    NoDup (map keyseq (orig_entries fs js)) ->
    (exists B, (forall e, In e (concat (map file_entries fs)) -> e_seq e <= B) /\ chain B js) ->
    exists st' seq', recover c p false sj fs js next = ROk st' seq' /\ wf_state st' /\
      (forall k s e, newest k s (orig_entries fs js) None = Some e -> survives fs js e ->
                     lsm_get st' k s = res_of p e) /\
      (forall k s v, lsm_get st' k s = GFound v ->
                     exists e, In e (orig_entries fs js) /\ e_uk e = k /\ e_seq e <= s /\
                               e_kind e <> keyTypeDel p /\ e_val e = v) /\
      (forall e, survives fs js e -> e_seq e <= seq').
  Proof.
    intros Hf Hjk Hnd HB.
    destruct (recover_spec false sj fs js next Hf Hjk Hnd HB) as [st' [seq' [HR [W' [PA HS]]]]].
    exists st', seq'. split; [exact HR|]. split; [exact W'|].
    assert (US : uniq_in (all_entries st')).
    { apply nodup_uniq_in. eapply Permutation_NoDup; [apply Permutation_map; symmetry; exact PA|].
      eapply sub_NoDup; [apply sub_map; apply surviving_sub|exact Hnd]. }
    assert (NE : forall k s, newest k s (all_entries st') None = newest k s (surviving false fs js) None).
    { intros k s. apply (newest_same_elems c ok); [exact US|apply perm_same_elems; exact PA]. }
    split; [|split].
    - intros k s e HN Hsv.
      rewrite (get_correct c ok p pok st' k s W'), NE.
      rewrite (newest_subset k s (orig_entries fs js) (surviving false fs js) e); [reflexivity| | |exact HN|].
      + apply nodup_uniq_in. exact Hnd.
      + intros x Hx. eapply sub_In; [apply surviving_sub|exact Hx].
      + apply survives_in. exact Hsv.
    - intros k s v HG. rewrite (get_correct c ok p pok st' k s W'), NE in HG.
      destruct (newest k s (surviving false fs js) None) as [e|] eqn:E; [|discriminate].
      cbn [group_res] in HG. unfold res_of in HG.
      destruct (e_kind e =? keyTypeDel p) eqn:K; [discriminate|]. injection HG as HG.
      apply (newest_in c) in E as [E|[He Ve]]; [discriminate|].
      apply (vis_true c ok) in Ve as [Ue Se].
      exists e. split; [eapply sub_In; [apply surviving_sub|exact He]|].
      repeat split; try assumption. apply N.eqb_neq. exact K.
    - intros e He. apply HS. apply survives_in. exact He.
  Qed.
End Proofs.
