(* Props/C18.v — property C18: ownership and lifecycle — one owner, read-only means read-only, closed is closed.
   Theorems are closed by lemmas of Store/ and followed by Print Assumptions; the Examples are evaluated.

   The machine (Store/Lifecycle.v): one storage (lock flag, abstract file set, mutation log = upper bound of the
   mutating storage operations a call may issue), any number of DB handles opened on it one after the other
   (modes RW / ROpened / RSwitched / Closed), per DB its snapshots, iterators (real or "empty" error iterators)
   and transactions; [step : state -> call -> state * outcome] for Open, for every exported method of *DB,
   *Snapshot, *Transaction and of iterator.Iterator (Inductive api_call; the correspondence run compares the
   enumeration with reflection on the Go types), and for "background work drains".
   All theorems hold for every state reachable from ANY initial storage by ANY call sequence.
   The first argument of step / run / run_out selects the code variant: [true] everywhere = the tree as it is (the
   compaction goroutines start no work once the DB is in its persistent-error state); [false] = the code before
   that repair, used only by the refutation witness of theorem 5. *)
From Coq Require Import List NArith Bool.
From GL Require Import Store.Lifecycle Store.LifecycleLocal Store.LifecycleProofs.
From GL Require Import Base.Bytes Store.FileStorage Store.FileStorageProofs.
From GL Require Store.ApiTotality Store.ApiTotalityProofs.
From Coq Require Import ZArith.
Import ListNotations.
Open Scope nat_scope.

(* 0. the enumeration is the whole inductive type *)
Theorem C18_api_enumeration_complete : forall m, In m all_api.
Proof. exact all_api_complete. Qed.
Print Assumptions C18_api_enumeration_complete.

(* 1. Single owner: while some DB is open on the storage every further Open fails with ErrLocked and changes
      nothing; at most one DB is open at any time; Close (of a DB in any open mode, whatever it holds) succeeds,
      releases the lock, and the next Open succeeds and yields a new DB. *)
Theorem C18_single_owner : forall s d db ro seek,
  reachable s -> nth_error (dbs s) d = Some db -> dmode db <> Closed ->
  step true s (COpen ro seek) = (s, ErrLocked).
Proof. exact single_owner_locked. Qed.
Print Assumptions C18_single_owner.

Theorem C18_at_most_one_open : forall s d1 d2 a b,
  reachable s -> nth_error (dbs s) d1 = Some a -> dmode a <> Closed ->
  nth_error (dbs s) d2 = Some b -> dmode b <> Closed -> d1 = d2.
Proof. exact single_owner_unique. Qed.
Print Assumptions C18_at_most_one_open.

Theorem C18_available_after_close : forall s d db h,
  reachable s -> nth_error (dbs s) d = Some db -> dmode db <> Closed ->
  let s' := fst (step true s (CApi d h DbClose)) in
  snd (step true s (CApi d h DbClose)) = Ok /\ locked (stor s') = false /\
  (exists db', nth_error (dbs s') d = Some db' /\ dmode db' = Closed) /\
  forall ro seek, snd (step true s' (COpen ro seek)) = Ok /\
                  List.length (dbs (fst (step true s' (COpen ro seek)))) = S (List.length (dbs s')).
Proof. exact close_releases. Qed.
Print Assumptions C18_available_after_close.

(* 2. Closed is closed: for EVERY api_call m, on every handle index, of a closed DB: the outcome is the closed
      class of that method (Lifecycle.closed_outcome: ErrClosed for every *DB method; the handle's own
      released / transaction-done error, else ErrClosed, for handles), the storage (lock, files, mutation log)
      is untouched, the DB stays closed with no background work, other DBs are untouched, and for *DB methods
      other than NewIterator (which returns a fresh error iterator) the whole state is unchanged. *)
Theorem C18_closed_is_closed : forall s d db h m,
  reachable s -> nth_error (dbs s) d = Some db -> dmode db = Closed ->
  let s' := fst (step true s (CApi d h m)) in
  snd (step true s (CApi d h m)) = closed_outcome db h m /\
  stor s' = stor s /\
  (exists db', nth_error (dbs s') d = Some db' /\ dmode db' = Closed /\ dbg db' = false) /\
  (forall d', d' <> d -> nth_error (dbs s') d' = nth_error (dbs s) d') /\
  (recv m = RDb -> m <> DbNewIterator -> s' = s).
Proof. exact closed_is_closed. Qed.
Print Assumptions C18_closed_is_closed.

Theorem C18_closed_db_methods_return_ErrClosed : forall db h m, recv m = RDb -> closed_outcome db h m = ErrClosed.
Proof. exact closed_db_methods_return_ErrClosed. Qed.
Print Assumptions C18_closed_db_methods_return_ErrClosed.

Theorem C18_double_close_harmless : forall s d db h,
  nth_error (dbs s) d = Some db -> dmode db = Closed -> step true s (CApi d h DbClose) = (s, ErrClosed).
Proof. exact double_close_harmless. Qed.
Print Assumptions C18_double_close_harmless.

(* 3. Read-only (opened or switched): every writer-path method of *DB (Put, Delete, Write of a non-empty batch,
      CompactRange, OpenTransaction, SetReadOnly) returns ErrReadOnly and changes nothing at all; every read
      method succeeds without touching the storage; no call other than Close and the Release of an iterator
      touches the storage (Close of a switched DB may abort in-flight work, releasing an iterator that pins an
      old version lets the files only it kept alive be removed); on a DB OPENED read-only no call whatsoever
      adds to the mutation log. *)
Theorem C18_ro_rejects_writes_serves_reads : forall s d db h m,
  reachable s -> nth_error (dbs s) d = Some db -> is_ro (dmode db) = true ->
  let s' := fst (step true s (CApi d h m)) in
  let o := snd (step true s (CApi d h m)) in
  (recv m = RDb -> takes_write_lock m = true -> o = ErrReadOnly /\ s' = s) /\
  (recv m = RDb -> db_read m = true -> o = Ok /\ stor s' = stor s) /\
  (m <> DbClose -> m <> ItRelease -> stor s' = stor s) /\
  (dmode db = ROpened -> mlog (stor s') = mlog (stor s)).
Proof. exact ro_rejects_writes_serves_reads. Qed.
Print Assumptions C18_ro_rejects_writes_serves_reads.

(* 4. Opening read-only is pure: from any reachable state whose storage is free, Open(ReadOnly) followed by ANY
      call sequence that does not re-open read-write (calls on the new DB, on its handles, on older closed DBs
      and their handles, Close, further read-only Opens, drains) leaves the mutation log unchanged. *)
Theorem C18_ro_open_pure : forall s seek l,
  reachable s -> locked (stor s) = false -> forallb no_rw_open l = true ->
  mlog (stor (run true s (COpen true seek :: l))) = mlog (stor s).
Proof. exact ro_open_pure. Qed.
Print Assumptions C18_ro_open_pure.

(* 5. A DB switched to read-only quiesces (by the repair "a DB in the persistent-error state starts no flush
      and no table compaction": db_compaction.go mCompaction / tCompaction test compPerErrC before starting work and
      return): once the iterators obtained earlier have been released and the background work that was in flight
      at the switch has drained, no later call sequence (short of a read-write re-open) issues a mutation --
      whatever the seek-compaction option.  The job running at the switch may complete (it was started before
      SetReadOnly returned; the drain stands for it); a frozen memdb whose flush had not started stays in memory
      and in its journal.
      The code before the repair (machine variant parks = false) is refuted below: after SetReadOnly the
      compaction goroutines kept running and a plain Get scheduled a seek compaction
      (C18_ro_quiesces_refuted_before_repair); the same calls on the repaired machine leave the log alone. *)
Theorem C18_ro_quiesces : forall s d db l,
  reachable s -> nth_error (dbs s) d = Some db -> dmode db = RSwitched ->
  iters_released db = true ->
  forallb no_rw_open l = true ->
  let s1 := fst (step true s (CDrain d)) in
  mlog (stor (run true s1 l)) = mlog (stor s1).
Proof. exact ro_quiesces. Qed.
Print Assumptions C18_ro_quiesces.

Theorem C18_ro_quiesces_refuted_before_repair :
  exists s d db l,
    reachable_of false s /\ nth_error (dbs s) d = Some db /\ dmode db = RSwitched /\ iters_released db = true /\
    forallb no_rw_open l = true /\
    let s1 := fst (step false s (CDrain d)) in
    mlog (stor (run false s1 l)) <> mlog (stor s1).
Proof. exact ro_quiesces_refuted_before_repair. Qed.
Print Assumptions C18_ro_quiesces_refuted_before_repair.

Example C18_ro_quiesces_same_calls_repaired :
  let s := run true (init_state false [] 1%N) [COpen false true; CApi 0 0 DbPut; CApi 0 0 DbSetReadOnly] in
  let s1 := fst (step true s (CDrain 0)) in
  mlog (stor (run true s1 [CApi 0 0 DbGet; CDrain 0])) = mlog (stor s1).
Proof. exact ro_quiesces_same_calls_repaired. Qed.

(* 6. Released handles report their own errors, never touch the storage:
      released snapshot: Get / Has / NewIterator -> ErrSnapshotReleased (whatever the DB's mode, closed included);
      released iterator: the first movement reports ErrIterReleased and the error sticks (Error, Valid, Key,
      Value and every later movement), SetReleaser panics as util.ReleaseSetter documents;
      finished transaction: its transaction-done error (Commit tests the DB first: ErrClosed once closed);
      and every transaction of a DB that is not read-write is finished (Close discards the open one). *)
Theorem C18_released_snapshot_reports : forall s d db h m,
  nth_error (dbs s) d = Some db -> nth_error (dsnaps db) h = Some true ->
  m = SnGet \/ m = SnHas \/ m = SnNewIterator ->
  snd (step true s (CApi d h m)) = ErrSnapshotReleased /\ stor (fst (step true s (CApi d h m))) = stor s.
Proof. exact released_snapshot_reports. Qed.
Print Assumptions C18_released_snapshot_reports.

Theorem C18_released_iterator_reports : forall s d db h i m,
  nth_error (dbs s) d = Some db -> nth_error (diters db) h = Some i ->
  irel i = true -> ierr i = Ok -> it_move m = true ->
  let s' := fst (step true s (CApi d h m)) in
  snd (step true s (CApi d h m)) = ErrIterReleased /\ stor s' = stor s /\
  forall m', it_move m' = true \/ m' = ItValid \/ m' = ItError \/ m' = ItKey \/ m' = ItValue ->
    step true s' (CApi d h m') = (s', ErrIterReleased).
Proof. exact released_iterator_reports. Qed.
Print Assumptions C18_released_iterator_reports.

Theorem C18_released_iterator_setreleaser_panics : forall s d db h i b,
  nth_error (dbs s) d = Some db -> nth_error (diters db) h = Some i -> irel i = true ->
  step true s (CApi d h (ItSetReleaser b)) = (s, Panics).
Proof. exact released_iterator_setreleaser_panics. Qed.
Print Assumptions C18_released_iterator_setreleaser_panics.

Theorem C18_finished_transaction_reports : forall s d db h t m,
  nth_error (dbs s) d = Some db -> nth_error (dtxns db) h = Some t -> tdone t = true -> recv m = RTxn ->
  snd (step true s (CApi d h m)) =
    match m with
    | TrWrite true | TrDiscard => Ok
    | TrCommit => if is_closed (dmode db) then ErrClosed else ErrTransactionDone
    | _ => ErrTransactionDone
    end /\ stor (fst (step true s (CApi d h m))) = stor s.
Proof. exact finished_transaction_reports. Qed.
Print Assumptions C18_finished_transaction_reports.

Theorem C18_only_rw_db_has_open_transaction : forall s d db h t,
  reachable s -> nth_error (dbs s) d = Some db -> dmode db <> RW -> nth_error (dtxns db) h = Some t -> tdone t = true.
Proof. exact closed_db_transactions_done. Qed.
Print Assumptions C18_only_rw_db_has_open_transaction.

(* a history: create, write, snapshot, iterator, released snapshot, released iterator, open transaction with
   writes, Close (with all of them outstanding), then a read-only Open *)
Definition ex_calls : list call :=
  [COpen false true; CApi 0 0 DbPut; CApi 0 0 DbGetSnapshot; CApi 0 0 DbNewIterator; CApi 0 0 DbGetSnapshot;
   CApi 0 1 SnRelease; CApi 0 0 DbNewIterator; CApi 0 1 ItRelease; CApi 0 0 DbOpenTransaction; CApi 0 0 TrPut;
   CApi 0 0 DbClose; COpen true true].
Definition ex_state : state := run true (init_state false [] 1%N) ex_calls.

Example C18_nonvacuous :
  reachable ex_state /\
  (* DB 0 is closed with a live snapshot, a released one, an unreleased and a released iterator and a
     transaction that Close discarded; DB 1 is open read-only and holds the lock *)
  (exists db0 db1, nth_error (dbs ex_state) 0 = Some db0 /\ dmode db0 = Closed /\ dsnaps db0 = [false; true] /\
                   List.length (diters db0) = 2 /\ dtxns db0 = [mkTxn true true] /\
                   nth_error (dbs ex_state) 1 = Some db1 /\ dmode db1 = ROpened) /\
  locked (stor ex_state) = true /\
  (* the read-write history did mutate, the read-only open did not *)
  mlog (stor ex_state) <> [] /\
  mlog (stor ex_state) = mlog (stor (run true (init_state false [] 1%N) (removelast ex_calls))) /\
  (* outcomes on the closed DB / the read-only DB / the second Open *)
  run_out true ex_state
    [CApi 0 0 DbGet; CApi 0 0 DbPut; CApi 0 0 DbClose; CApi 0 0 SnGet; CApi 0 1 SnGet; CApi 0 0 TrPut; CApi 0 0 TrCommit;
     CApi 0 1 ItNext; CApi 0 1 ItError; CApi 0 1 (ItSetReleaser false); CApi 0 0 ItNext;
     CApi 1 0 DbGet; CApi 1 0 DbPut; CApi 1 0 DbSetReadOnly; COpen false true; CApi 1 0 DbClose; COpen false true]
  = [ErrClosed; ErrClosed; ErrClosed; ErrClosed; ErrSnapshotReleased; ErrTransactionDone; ErrClosed;
     ErrIterReleased; ErrIterReleased; Panics; Unspecified;
     Ok; ErrReadOnly; ErrReadOnly; ErrLocked; Ok; Ok].
Proof.
  split; [eexists _, _, _, _; reflexivity|].
  split; [eexists _, _; vm_compute; repeat split; reflexivity|].
  split; [vm_compute; reflexivity|].
  split; [vm_compute; discriminate|].
  split; vm_compute; reflexivity.
Qed.

(* the hypotheses of theorem 5 are satisfiable, with seek compaction ENABLED and work pending at the switch *)
Example C18_ro_quiesces_nonvacuous :
  let s := run true (init_state false [] 1%N) [COpen false true; CApi 0 0 DbPut; CApi 0 0 DbSetReadOnly] in
  reachable s /\ exists db, nth_error (dbs s) 0 = Some db /\ dmode db = RSwitched /\ dseek db = true /\ dbg db = true /\
                            iters_released db = true.
Proof. split; [eexists _, _, _, _; reflexivity|]. eexists; vm_compute; repeat split; reflexivity. Qed.

(* The real file storage (leveldb/storage/file_storage.go).

   Model: Store/FileStorage.v (names, SetMeta / GetMeta as sequences of file-system operations on a directory,
   the storage object with its flock and in-process lock).  The crash theorems are in Props/C04FS.v. *)

(* 7. File names.  fsParseName (fsGenName fd) = fd and fsParseName (fsGenOldName fd) = fd for EVERY descriptor
      whose number is an int64 (FileDescOk needs Num >= 0; the round trip also holds for negative numbers, which
      %06d prints with the sign inside the width); distinct descriptors have distinct names. *)
Theorem C18_name_roundtrip : forall fd, int64_ok (fd_num fd) = true ->
  parse_name (gen_name fd) = Some fd /\ parse_name (gen_old_name fd) = Some fd /\
  (forall fd', int64_ok (fd_num fd') = true -> gen_name fd' = gen_name fd -> fd' = fd).
Proof. exact name_roundtrip. Qed.
Print Assumptions C18_name_roundtrip.

(* Of the names the storage itself writes into its directory (descriptor names, old table names, CURRENT,
   CURRENT.bak, CURRENT.<n>, LOCK, LOG, LOG.old) fsParseName accepts exactly the descriptor names and returns the
   descriptor they were generated from: never a wrong descriptor. *)
Theorem C18_stored_names_never_wrong_fd : forall l fd,
  stored_name l -> parse_name l = Some fd -> l = gen_name fd \/ l = gen_old_name fd.
Proof. exact parse_stored_name. Qed.
Print Assumptions C18_stored_names_never_wrong_fd.

(* Whatever fsParseName accepts (any byte string: leading white space, a sign, a tail cut at white space, trailing
   garbage after it are all accepted by fmt.Sscanf) carries an int64, and generating the name of the result and
   parsing it again gives the same descriptor (so GetMeta's repair writes a CURRENT that reads back the same). *)
Theorem C18_parsed_names_regenerate : forall l fd,
  parse_name l = Some fd -> int64_ok (fd_num fd) = true /\ parse_name (gen_name fd) = Some fd.
Proof. intros l fd H. split; [exact (parse_name_int64 l fd H)|exact (parse_name_regen l fd H)]. Qed.
Print Assumptions C18_parsed_names_regenerate.

(* Numbers >= 2^63: a digit string whose value does not fit an int64 is not parsed in either form (List does not
   see such a file).  Longer digit strings / more leading zeros denote the SAME descriptor as the canonical
   name (List reports it, Open looks for the canonical name only). *)
Theorem C18_name_overflow_not_parsed : forall ds rest,
  digits_ok ds -> ds <> [] -> stops rest -> (two63 <= dval 0 ds)%N ->
  parse_name (ds ++ rest) = None /\ parse_name (s_MANIFEST ++ ds ++ rest) = None.
Proof. exact parse_overflow. Qed.
Print Assumptions C18_name_overflow_not_parsed.

Theorem C18_name_leading_zeros_alias : forall k z t,
  (0 <= z)%Z -> int64_ok z = true -> t <> TManifest ->
  parse_name (repeat 48%N k ++ gen_name (FD t z)) = Some (FD t z) /\
  parse_name (s_MANIFEST ++ repeat 48%N k ++ fmt_d06 z) = Some (FD TManifest z).
Proof. exact parse_leading_zeros. Qed.
Print Assumptions C18_name_leading_zeros_alias.

(* 8. GetMeta on a storage opened read-only issues NO file-system operation, in any directory state (this is the
      guard the seeded change seeded/C18 removes); the directory and the durable file system are unchanged; the
      answer is the one a read-write storage gives. *)
Theorem C18_getmeta_readonly_pure :
  (forall v, snd (get_meta_ops true v) = []) /\
  (forall v, snd (get_meta true v) = v) /\
  (forall s, snd (get_meta_fs true s) = s) /\
  (forall ro v, fst (get_meta_ops ro v) = get_meta_result v).
Proof. exact getmeta_readonly_pure. Qed.
Print Assumptions C18_getmeta_readonly_pure.

(* OpenFile read-only is pure only when the LOCK file exists — PARTIAL: newFileLock retries with O_CREATE, so a
   read-only OpenFile of a directory without LOCK creates it (and fails on a read-only medium). *)
Theorem C18_openfile_readonly_pure_partial : forall v, has v s_LOCK = true -> open_file_view true v = v.
Proof. exact open_file_ro_pure. Qed.
Print Assumptions C18_openfile_readonly_pure_partial.

Theorem C18_openfile_readonly_creates_lock_refuted : open_file_view true [] = [(s_LOCK, [])].
Proof. exact open_file_ro_creates_lock. Qed.
Print Assumptions C18_openfile_readonly_creates_lock_refuted.

(* 9. The read-write repair is a fixpoint, for EVERY directory: on the repaired directory GetMeta gives the same
      answer and its repair operations change nothing; there are none when every pending file has a name in the
      form %d prints. *)
Theorem C18_getmeta_repair_idempotent : forall v,
  let v' := vapply_all v (snd (get_meta_ops false v)) in
  fst (get_meta_ops false v') = fst (get_meta_ops false v) /\
  vapply_all v' (snd (get_meta_ops false v')) = v' /\
  (pend_names v' = [] -> snd (get_meta_ops false v') = []).
Proof. exact get_meta_repair_fixpoint. Qed.
Print Assumptions C18_getmeta_repair_idempotent.

(* "no further repair" is FALSE in general: with a file CURRENT.05 every GetMeta re-issues Remove(CURRENT.5),
   which fails and is logged, for ever; the file itself is never removed. *)
Theorem C18_getmeta_no_further_repair_refuted :
  let v' := vapply_all ex_noncanon_dir (snd (get_meta_ops false ex_noncanon_dir)) in
  v' = ex_noncanon_dir /\ snd (get_meta_ops false v') = [OUnlink (pend_name 5%Z)] /\
  fst (get_meta_ops false v') = GOk (FD TManifest 1%Z).
Proof. exact get_meta_repair_reissued. Qed.
Print Assumptions C18_getmeta_no_further_repair_refuted.

(* 10. One owner.  In every state reachable by OpenFile / Lock / Unlock / Close / method calls on one directory:
       while a read-write storage is open every OpenFile is refused (flock) and changes nothing; readers share
       the directory and exclude the writer; a second Lock returns ErrLocked; Unlock of a lock that is not the
       current one (released, or a newer one was granted) changes nothing; Close releases the flock, after it
       every call reports ErrClosed (ErrInvalidFile first where that guard comes first), a second Close too,
       and the directory can be opened again. *)
Theorem C18_lock_single_owner : forall p s st ro,
  freach p -> nth_error (p_stors p) s = Some st -> so_ro st = false -> so_closed st = false ->
  p_exists p = true -> fstep p (FOpenFile ro) = (p, SErrFlock, None).
Proof. exact fs_single_owner. Qed.
Print Assumptions C18_lock_single_owner.

Theorem C18_lock_readers_exclude_writer : forall p s st,
  freach p -> nth_error (p_stors p) s = Some st -> so_ro st = true -> so_closed st = false -> p_exists p = true ->
  snd (fst (fstep p (FOpenFile false))) = SErrFlock /\ snd (fst (fstep p (FOpenFile true))) = SOk.
Proof. exact fs_readers_exclude_writer. Qed.
Print Assumptions C18_lock_readers_exclude_writer.

Theorem C18_lock_second_lock : forall p s st id,
  nth_error (p_stors p) s = Some st -> so_closed st = false -> so_ro st = false -> so_slock st = Some id ->
  fstep p (FLock s) = (p, SErrLocked, None).
Proof. exact fs_second_lock. Qed.
Print Assumptions C18_lock_second_lock.

Theorem C18_lock_unlock_relock : forall p s st,
  nth_error (p_stors p) s = Some st -> so_closed st = false -> so_ro st = false -> so_slock st = None ->
  exists l p1, fstep p (FLock s) = (p1, SOk, Some l) /\
    snd (fst (fstep p1 (FLock s))) = SErrLocked /\
    snd (fst (fstep (fst (fst (fstep p1 (FUnlock l)))) (FLock s))) = SOk.
Proof. exact fs_lock_then_unlock. Qed.
Print Assumptions C18_lock_unlock_relock.

Theorem C18_lock_stale_unlock_harmless : forall p s st id,
  nth_error (p_stors p) s = Some st -> so_slock st <> Some id -> fstep p (FUnlock (LK s id)) = (p, SOk, None).
Proof. exact fs_stale_unlock_harmless. Qed.
Print Assumptions C18_lock_stale_unlock_harmless.

Theorem C18_storage_close : forall p s st,
  freach p -> nth_error (p_stors p) s = Some st -> so_closed st = false -> so_ro st = false -> p_exists p = true ->
  let p1 := fst (fst (fstep p (FClose s))) in
  snd (fst (fstep p (FClose s))) = SOk /\
  p_os p1 = OsFree /\
  fstep p1 (FClose s) = (p1, SErrClosed, None) /\
  fstep p1 (FLock s) = (p1, SErrClosed, None) /\
  (forall m, snd (fst (fstep p1 (FMeth s m))) =
             match m with
             | MSetMeta false | MOpen false | MCreate false | MRemove false | MRename false _ => SErrInvalidFile
             | MRename true true | MLog => SOk
             | _ => SErrClosed
             end) /\
  forall ro, snd (fst (fstep p1 (FOpenFile ro))) = SOk.
Proof. exact fs_close. Qed.
Print Assumptions C18_storage_close.

(* non-vacuity: a reachable state with an open read-write storage holding its lock; a read-only OpenFile of a
   missing directory fails without creating it *)
Example C18_file_storage_nonvacuous :
  freach ex_proc /\ p_os ex_proc = OsExcl /\ p_exists ex_proc = true /\
  nth_error (p_stors ex_proc) 0 = Some (ST false false (Some 0%N) 1%N) /\
  snd (fst (fstep (PR false OsFree []) (FOpenFile true))) = SErrNotExist.
Proof. exact ex_proc_reachable. Qed.

(* 11. API totality (Store/ApiTotality.v): the finite table (exported entry point x argument class -> allowed outcome
   classes: 0 ok, 1 error, 2 panic, 3 hang, 4 huge allocation, 5 the process died) that the sweep of the whole public
   surface (harness/cmd/c18/api*.go) is evaluated against on every run ((K) cases KApi / KApiEnum).
   For EVERY entry point name and EVERY argument class name (listed or not, exercised or not):
   no outcome table allows a hang; an argument class that is not listed as an exception of its entry point must
   RETURN (exactly ok and error are allowed); the death of the process is tolerated in one place only (Open with an
   option that is a size in bytes set to 2^31 / MaxInt); an entry point without a row allows nothing, so that an
   exported function or method added to goleveldb is a mismatch until it is classified. *)
From Coq Require Import String.
Local Open Scope string_scope.
Local Open Scope N_scope.

Theorem C18_api_totality_table : forall (e c : String.string),
  ApiTotality.outcome_allowed e c ApiTotality.oc_hang = false /\
  (forall ex o, ApiTotality.lookup_row ApiTotality.api_totality_table e = Some ex -> ApiTotality.lookup_exc ex c = None ->
     (ApiTotality.outcome_allowed e c o = true <-> o = ApiTotality.oc_ok \/ o = ApiTotality.oc_error)).
Proof. exact (fun e c => conj (ApiTotalityProofs.api_never_hangs e c) (fun ex o => ApiTotalityProofs.api_default_returns e ex c o)). Qed.
Print Assumptions C18_api_totality_table.

Theorem C18_api_totality_died_only_option_sizes : forall (e c : String.string),
  ApiTotality.outcome_allowed e c ApiTotality.oc_died = true ->
  e = "leveldb.Open"%string /\ c = "option extreme (a size in bytes)"%string.
Proof. exact ApiTotalityProofs.api_died_only_option_sizes. Qed.
Print Assumptions C18_api_totality_died_only_option_sizes.

Theorem C18_api_totality_unknown_entry_rejected : forall (e c : String.string) o,
  ApiTotality.lookup_row ApiTotality.api_totality_table e = None -> ApiTotality.outcome_allowed e c o = false.
Proof. exact ApiTotalityProofs.api_unknown_entry_rejected. Qed.
Print Assumptions C18_api_totality_unknown_entry_rejected.

(* the bloom filter entry points, after the repairs of leveldb/filter/bloom.go (C16_bloom_generate_total and
   C16_bloom_contains_total are unconditional): for EVERY argument class NewBloomFilter, Add and Contains must return
   without a huge allocation, and Generate must not panic for any bitsPerKey (only a nil Buffer is misuse; a huge
   bitsPerKey may allocate up to the documented ceiling of 512 MiB) *)
Theorem C18_api_bloom_must_return : forall c : String.string,
  ApiTotality.outcome_allowed "filter.NewBloomFilter" c ApiTotality.oc_panic = false /\
  ApiTotality.outcome_allowed "filter.NewBloomFilter" c ApiTotality.oc_alloc = false /\
  ApiTotality.outcome_allowed "filter.Filter.Contains" c ApiTotality.oc_panic = false /\
  ApiTotality.outcome_allowed "filter.Filter.Contains" c ApiTotality.oc_alloc = false /\
  ApiTotality.outcome_allowed "filter.FilterGenerator.Add" c ApiTotality.oc_panic = false /\
  (c <> "required argument nil" -> ApiTotality.outcome_allowed "filter.FilterGenerator.Generate" c ApiTotality.oc_panic = false) /\
  (c <> "required argument nil" -> c <> "n huge" ->
     ApiTotality.outcome_allowed "filter.FilterGenerator.Generate" c ApiTotality.oc_alloc = false).
Proof. exact ApiTotalityProofs.api_bloom_must_return. Qed.
Print Assumptions C18_api_bloom_must_return.

(* non-vacuity: the repaired GetProperty class must return (a panic there is a mismatch); a documented panic is allowed;
   an out-of-order Append must be an error; rows are distinct and masks sane *)
Example C18_api_totality_nonvacuous :
  ApiTotality.outcome_allowed "leveldb.DB.GetProperty" "name level out of range" ApiTotality.oc_panic = false /\
  ApiTotality.outcome_allowed "leveldb.DB.GetProperty" "name level out of range" ApiTotality.oc_ok = true /\
  ApiTotality.outcome_allowed "leveldb.Batch.Load" "bytes arbitrary" ApiTotality.oc_hang = false /\
  ApiTotality.outcome_allowed "util.Buffer.Truncate" "n out of range" ApiTotality.oc_panic = true /\
  ApiTotality.outcome_allowed "table.Writer.Append" "keys out of order" ApiTotality.oc_ok = false /\
  ApiTotality.outcome_allowed "table.Writer.Append" "keys out of order" ApiTotality.oc_error = true /\
  ApiTotality.outcome_allowed "leveldb.NoSuchFunction" "-" ApiTotality.oc_ok = false /\
  ApiTotality.table_rows_distinct = true /\ ApiTotality.table_masks_sane = true /\
  List.length ApiTotality.api_totality_table = 245%nat.
Proof. vm_compute. repeat split; reflexivity. Qed.
