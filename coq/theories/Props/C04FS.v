(* Props/C04FS.v — property C04, the part that rests on the real file storage: a crash during a manifest switch.
   Theorems are closed by lemmas of Store/ and followed by Print Assumptions; one evaluated Example at the end.

   The checker's storage (harness/lib/vstor) ASSUMES that SetMeta is atomic and durable in order; the real
   fileStorage implements it with several file-system operations (Store/FileStorage.v: [set_meta_ops] — back up a
   usable CURRENT to CURRENT.bak (create/truncate, write, fsync), write CURRENT.<n> (create/truncate, write,
   fsync), rename it over CURRENT, sync the directory).  Crash model ([crash_image]): of the directory operations
   issued since the last directory sync ANY SUBSET survives (each atomic; a rename persists as "the new name
   binds that inode, the old name is gone"); a file keeps its last fsync'ed content or — truncated/created since —
   any prefix of its current content.

   [clean s A A K i0] (Store/FileStorageCrashProofs.v) is the invariant of a settled directory: CURRENT is a
   synced file holding "MANIFEST-<A>\n", no pending directory operation touches CURRENT, the files of K (which
   include MANIFEST-<A>) exist durably and are not being removed, and every pending file CURRENT.<n> that may
   appear in a crash image holds a content GetMeta rejects or reads as a number not above A.  It holds after a
   read-write GetMeta ([C04_getmeta_repair_crash_safe]) and after every completed switch. *)
From Coq Require Import List NArith ZArith Bool.
From GL Require Import Base.Bytes Store.FileStorage Store.FileStorageProofs Store.FileStorageCrashProofs.
Import ListNotations.

(* 1. One switch.  From a settled directory on A, SetMeta(B) for a newer manifest B that exists durably: after ANY
      number k of its file-system operations and with ANY admissible loss of unsynced effects, GetMeta answers A or
      B — never an error, never a third value; once SetMeta has returned, every crash image answers B and the
      directory is settled on B. *)
Theorem C04_setmeta_crash_atomic : forall s A B K i0,
  clean s A A K i0 -> In (gen_name A) K -> In (gen_name B) K ->
  (fd_num A < fd_num B)%Z -> int64_ok (fd_num A) = true -> int64_ok (fd_num B) = true ->
  (forall k v, crash_image (fapply_all s (firstn k (set_meta_ops (vol_view s) B))) v ->
               get_meta_result v = GOk A \/ get_meta_result v = GOk B) /\
  (exists j, clean (set_meta s B) B B K j) /\
  (forall v, crash_image (set_meta s B) v -> get_meta_result v = GOk B).
Proof. exact set_meta_crash_atomic. Qed.
Print Assumptions C04_setmeta_crash_atomic.

(* 2. It stays: every crash image of a settled directory answers A, and the restarted machine (everything that
      survived is durable) is settled on A again — so any number of crashes and restarts changes nothing. *)
Theorem C04_settled_across_crashes : forall s A K i0 v,
  clean s A A K i0 -> In (gen_name A) K -> int64_ok (fd_num A) = true -> crash_image s v ->
  get_meta_result v = GOk A /\ exists i1, clean (fs_of_view v) A A K i1.
Proof. exact settled_across_crashes. Qed.
Print Assumptions C04_settled_across_crashes.

(* 3. A chain of switches with the session's other file operations in between (creating, writing, syncing,
      renaming, removing other files — the current manifest excepted —, directory syncs; a switch is what
      newManifest does: sync the directory, SetMeta(B) for a newer existing B, after which only B has to stay):
      in EVERY state between two file-system operations every crash image answers the manifest before or after
      the switch in progress (the current one outside a switch). *)
Theorem C04_setmeta_chain : forall evs s A K i0,
  clean s A A K i0 -> In (gen_name A) K -> int64_ok (fd_num A) = true -> valid_chain s A K evs ->
  Forall safe (chain_states s A evs).
Proof. exact chain_safe. Qed.
Print Assumptions C04_setmeta_chain.

(* 4. After a crash in the middle of a switch the restarted directory is clean for the window (A, B) or settled
      on B; a read-write GetMeta on such a directory answers A or B, a crash at any point of ITS repair leaves
      a directory that answers A or B, and when it has returned the directory is settled on the answer B, or
      still open on A when the pending file did not validate. *)
Theorem C04_crash_image_restarts_clean : forall s A B K v,
  good s A B K -> (fd_num A <= fd_num B)%Z -> (forall k, In k K -> ~ famc k) -> crash_image s v ->
  (exists i, clean (fs_of_view v) A B K i) \/ (exists i, clean (fs_of_view v) B B K i).
Proof. exact crash_image_restarts_clean. Qed.
Print Assumptions C04_crash_image_restarts_clean.

Theorem C04_getmeta_repair_crash_safe : forall s A B K i0,
  clean s A B K i0 -> In (gen_name A) K -> In (gen_name B) K -> (fd_num A <= fd_num B)%Z ->
  int64_ok (fd_num A) = true -> int64_ok (fd_num B) = true ->
  let r := fst (get_meta_ops false (vol_view s)) in
  let ops := snd (get_meta_ops false (vol_view s)) in
  (forall k v, crash_image (fapply_all s (firstn k ops)) v -> get_meta_result v = GOk A \/ get_meta_result v = GOk B) /\
  ((r = GOk A /\ clean (fapply_all s ops) A B K i0) \/ (r = GOk B /\ exists j, clean (fapply_all s ops) B B K j)).
Proof. exact repair_safe. Qed.
Print Assumptions C04_getmeta_repair_crash_safe.

(* (a) BEFORE the repair "fix: setMeta backs up CURRENT only when CURRENT is usable": from a directory whose
       CURRENT is torn and whose CURRENT.bak is good (GetMeta answers MANIFEST-000004), GetMeta's own repair
       copied the torn CURRENT over CURRENT.bak first; a crash right after it left a directory on which GetMeta
       fails with ErrCorrupted although the manifest is intact.  Reproduced on the real storage by killing the
       process inside setMeta (harness, fsmodel.go). *)
Theorem C04_repair_from_backup_refuted :
  get_meta_result ex_bak_view = GOk (M 4) /\
  exists k mask sel,
    get_meta_result (image_view mask sel (fapply_all (fs_of_view ex_bak_view) (firstn k (get_meta_ops_old ex_bak_view))))
    = GErr GCorrupted.
Proof. exact repair_from_backup_old_refuted. Qed.
Print Assumptions C04_repair_from_backup_refuted.

(* with the repair, on that directory: all crash states of the repair, enumerated, answer MANIFEST-000004
   (checked by computation on this directory; NOT proved for every directory of that kind) *)
Theorem C04_repair_from_backup_fixed_enumerated :
  let ops := snd (get_meta_ops false ex_bak_view) in
  ops = [OCreate (pend_name 4); OWrite (pend_name 4) (meta_content (M 4)); OFsync (pend_name 4);
         ORename (pend_name 4) s_CURRENT; OSyncDir] /\
  forallb (fun k =>
    forallb (fun mask =>
      forallb (fun sel =>
        match get_meta_result (image_view mask sel (fapply_all (fs_of_view ex_bak_view) (firstn k ops))) with
        | GOk fd => fd_eqb fd (M 4)
        | GErr _ => false
        end) ex_sels) (all_masks 2)) (seq 0 6) = true.
Proof. exact repair_from_backup_fixed_enumerated. Qed.
Print Assumptions C04_repair_from_backup_fixed_enumerated.

(* (b) "once the new manifest was answered it stays": FALSE.  After a crash that left a valid pending file a
       read-only GetMeta answers the new manifest; the next read-write GetMeta rewrites that very file
       (truncate, write, fsync) before renaming it; a crash in between leaves it empty and GetMeta answers the
       old manifest again.  Both manifests are intact and nobody has acted on the answer yet (the read-write
       GetMeta had not returned), so this is within "old or new". *)
Theorem C04_observed_answer_may_revert_refuted :
  get_meta_result ex_pending_view = GOk (M 2) /\
  exists k mask sel,
    get_meta_result (image_view mask sel (fapply_all (fs_of_view ex_pending_view)
                                                   (firstn k (snd (get_meta_ops false ex_pending_view)))))
    = GOk (M 1).
Proof. exact observed_answer_may_revert. Qed.
Print Assumptions C04_observed_answer_may_revert_refuted.

(* (c) WHY a manifest number must never be used again once a SetMeta for it was attempted (repair 901ff3d
       "fix: do not give back the file number of a manifest whose creation failed").  A setMeta that fails after
       writing CURRENT.<n> leaves that pending file (or, after a failed directory sync, CURRENT itself) naming
       MANIFEST-<n>, which newManifest then removes.  The stale pointer is harmless exactly as long as no file of
       that name exists: GetMeta skips it.  Re-creating MANIFEST-<n> (number given back to the allocator) makes
       GetMeta answer the new, still EMPTY, file — the directory is outside the invariant [clean].  The harness
       drives the real session into the failed SetMeta on the real file storage and kills it at every later
       file operation (fsmodel.go, sessionFaultChecks). *)
Theorem C04_manifest_number_reuse_refuted :
  get_meta_result ex_dangling_view = GOk (M 5) /\
  get_meta_result (vapply ex_dangling_view (OCreate (gen_name (M 9)))) = GOk (M 9).
Proof. exact dangling_pending_flips. Qed.
Print Assumptions C04_manifest_number_reuse_refuted.

(* (d) the hypothesis "B is newer than A" is needed: after a completed SetMeta to an OLDER number a stale pending
       file with a number in between wins. *)
Theorem C04_backwards_switch_refuted :
  get_meta_result ex_backwards_view = GOk (M 9) /\
  get_meta_result (vol_view (set_meta (fs_of_view ex_backwards_view) (M 5))) = GOk (M 7).
Proof. exact backwards_switch_refuted. Qed.
Print Assumptions C04_backwards_switch_refuted.

(* a settled directory with a stale CURRENT.bak and a stale pending file, and a valid chain of 8 events on it
   (two switches, table and manifest creation, removal of the old manifest) with 27 crash points *)
Example C04_setmeta_nonvacuous :
  exists i0, clean (fs_of_view ex_settled_view) (M 1) (M 1) [gen_name (M 1)] i0 /\
  valid_chain (fs_of_view ex_settled_view) (M 1) [gen_name (M 1)] ex_chain /\
  List.length (chain_states (fs_of_view ex_settled_view) (M 1) ex_chain) = 27%nat.
Proof. exact ex_chain_valid. Qed.
