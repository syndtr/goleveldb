(* Props/C06.v — property C06: the live table set is always a well-formed LSM tree.
   Theorems are closed by lemmas of the model's proof files and followed by Print Assumptions; the example versions
   and runs defined here are evaluated.  The well-formedness conditions are a boolean (Compact.wf_versionb) that the
   correspondence check evaluates inside Coq on the versions the implementation installs; the theorems say
   what that boolean guarantees and that the tables a compaction writes are well-formed by construction.
   Second part: the step theorems for the model Lsm/Pick.v of
   goleveldb's own construction — getOverlaps (both variants), newCompaction/expand, trivial(), pickMemdbLevel,
   versionStaging.finish — over every comparer, every well-formed version, every level and every seed.  The invariant
   is WfLsm.wf_lsm; its boolean form Pick.wf_lsmb = wf_versionb && wf_extrab is what the correspondence check evaluates
   on the versions the running code installs.
   NOT covered by a step theorem: records committed with finish(trivial=false) (transaction commit, recovery), which the
   model has but for which only the correspondence check (KFinish) and the oracle speak.
   Third part: tableCompactionBuilder (Lsm/Builder.v) — its retries end in the state of a failure-free run and its cuts
   are what the step theorems assume of a compaction's outputs.  Fourth part: the loops that drive compactions
   (Lsm/RangeCompact.v) — CompactRange terminates within an explicit fuel, the background loop quiesces under growing
   level limits and does not under flat ones (refuted witness). *)
From GL Require Import Base.Order Codec.IKey Codec.BytesCmp Codec.BytesCmpProofs Lsm.Lsm Lsm.Compact Lsm.LsmProofs
  Lsm.CompactProofs Lsm.History Lsm.ReorgProofs Lsm.WfProofs Lsm.OutputProofs Lsm.Pick Lsm.PickBase Lsm.OverlapProofs
  Lsm.WfLsm Lsm.C06Steps Gen.ConstsOk.

(* The boolean check implies the invariant under which newest-first lookup is correct: every table sorted,
   level 0 without duplicate (key, seq), deeper levels ordered with pairwise disjoint user-key ranges, and for
   one user key every entry of a shallower level newer than every entry of a deeper one. *)
Theorem C06_wf_versionb_sound : forall c, comparer_ok c -> forall p lvls,
  wf_versionb c p lvls = true ->
  wf_state c p {| st_mem := []; st_frozen := []; st_aux := []; st_levels := lvls |}.
Proof. exact wf_versionb_sound. Qed.
Print Assumptions C06_wf_versionb_sound.

(* ... and those are the conditions under which the lookup is correct. *)
Theorem C06_wf_makes_lookup_correct : forall c, comparer_ok c -> forall p, kparams_ok p -> forall lvls k s,
  wf_versionb c p lvls = true ->
  let st := {| st_mem := []; st_frozen := []; st_aux := []; st_levels := lvls |} in
  lsm_get c p st k s = group_res p (newest c k s (all_entries st) None).
Proof. intros c ok p pok lvls k s H st. apply (get_correct c ok p pok). apply wf_versionb_sound; assumption. Qed.
Print Assumptions C06_wf_makes_lookup_correct.

(* The merged, filtered entry list a compaction writes is strictly ordered ... *)
Theorem C06_kept_sorted : forall c p minSeq base l, ssorted c l -> ssorted c (drop_run c p minSeq base None l).
Proof. intros c p minSeq base l. exact (drop_sorted c p minSeq base None l). Qed.
Print Assumptions C06_kept_sorted.

Theorem C06_merge_sorted : forall c, comparer_ok c -> forall p, kparams_ok p -> forall l,
  kinds_ok p l -> NoDup (map keyseq l) -> ssorted c (isort c l).
Proof. exact isort_sorted. Qed.
Print Assumptions C06_merge_sorted.

(* ... and cutting it only between different user keys yields tables that are each sorted, non-empty, and
   pairwise disjoint in user keys (no user key spans two files). *)
Theorem C06_outputs_well_formed_partial : forall c, comparer_ok c -> forall outs,
  cuts_ok c outs = true -> ssorted c (concat outs) ->
  Forall (fun es => ssorted c es /\ es <> []) outs /\ level_sorted c (mk_tables outs).
Proof. exact outputs_well_formed. Qed.
Print Assumptions C06_outputs_well_formed_partial.

Example C06_nonvacuous :
  wf_versionb bytewise kp
    [ [ {| t_num := 9; t_entries := [{| e_uk := [1]; e_seq := 12; e_kind := 1; e_val := [] |}] |};
        {| t_num := 8; t_entries := [{| e_uk := [1]; e_seq := 10; e_kind := 0; e_val := [] |}] |} ];
      [ {| t_num := 5; t_entries := [{| e_uk := [1]; e_seq := 5; e_kind := 1; e_val := [] |}] |};
        {| t_num := 6; t_entries := [{| e_uk := [3]; e_seq := 4; e_kind := 1; e_val := [] |}] |} ] ]%N = true
  /\ wf_versionb bytewise kp
    [ []; [ {| t_num := 5; t_entries := [{| e_uk := [3]; e_seq := 5; e_kind := 1; e_val := [] |}] |};
            {| t_num := 6; t_entries := [{| e_uk := [3]; e_seq := 4; e_kind := 1; e_val := [] |}] |} ] ]%N = false.
Proof. split; vm_compute; reflexivity. Qed.

(* The step theorems for goleveldb's own compaction construction (model Lsm/Pick.v). *)

(* The boolean evaluated on observed versions implies the step invariant, and the step invariant implies the invariant
   of the read path (the Prop C06_wf_versionb_sound concludes). *)
Theorem C06_wf_lsmb_sound : forall c, comparer_ok c -> forall p v, wf_lsmb c p v = true -> wf_lsm c p v.
Proof. exact wf_lsmb_sound. Qed.
Print Assumptions C06_wf_lsmb_sound.

Theorem C06_wf_lsm_wf_state : forall c p v, wf_lsm c p v ->
  wf_state c p {| st_mem := []; st_frozen := []; st_aux := []; st_levels := v |}.
Proof. exact wf_lsm_wf_state. Qed.
Print Assumptions C06_wf_lsm_wf_state.

(* tFiles.getOverlaps on an ordered, disjoint level (the two binary searches) returns exactly the overlapping tables. *)
Theorem C06_getoverlaps_sorted_exact : forall c, comparer_ok c -> forall p tf,
  (forall t, In t tf -> tbl_ok c p t) -> bsorted c tf -> forall umin umax t,
  In t (get_overlaps_sorted c tf umin umax) <-> In t tf /\ t_overlaps c t umin umax = true.
Proof. exact get_overlaps_sorted_in. Qed.
Print Assumptions C06_getoverlaps_sorted_exact.

(* tFiles.getOverlaps on level 0 (restart-the-scan loop) terminates within its fuel and returns the tables overlapping a
   widened range none of which sticks out of that range. *)
Theorem C06_getoverlaps_level0 : forall c, comparer_ok c -> forall tf umin umax,
  exists d, get_overlaps c tf umin umax true = POk d /\ l0_result c tf umin umax d.
Proof. exact get_overlaps_l0_spec. Qed.
Print Assumptions C06_getoverlaps_level0.

(* The inputs newCompaction/expand choose are closed: they contain the seed; every table of level+1 overlapping the
   user-key range spanned by any two chosen source tables is an input; for source level 0 so is every level-0 table
   overlapping such a range.  (No panic, no fuel exhaustion: the result is POk.) *)
Theorem C06_inputs_closed : forall c, comparer_ok c -> forall p sz v lvl limit seed,
  wf_lsm c p v -> seed_ok v lvl seed ->
  exists cm, new_compaction c sz v lvl limit seed = POk cm /\
    c_level cm = lvl /\ incl seed (c_t0 cm) /\ incl (c_t0 cm) (lv v lvl) /\ incl (c_t1 cm) (lv v (S lvl)) /\
    (forall s ta tb, In s (lv v (S lvl)) -> In ta (c_t0 cm) -> In tb (c_t0 cm) ->
       t_overlaps c s (Some (umin_of ta)) (Some (umax_of tb)) = true -> In s (c_t1 cm)) /\
    (lvl = 0%nat -> forall s ta tb, In s (lv v 0) -> In ta (c_t0 cm) -> In tb (c_t0 cm) ->
       t_overlaps c s (Some (umin_of ta)) (Some (umax_of tb)) = true -> In s (c_t0 cm)).
Proof. exact inputs_closed. Qed.
Print Assumptions C06_inputs_closed.

(* Compaction step: for every level and every seed, installing (finish) the record of the model-built compaction —
   inputs deleted, outputs = chunks of the kept merged entries cut only between different user keys, under new file
   numbers — yields a well-formed version again. *)
Theorem C06_compaction_step : forall c, comparer_ok c -> forall p, kparams_ok p -> forall sz v lvl limit seed,
  wf_lsm c p v -> seed_ok v lvl seed ->
  exists cm, new_compaction c sz v lvl limit seed = POk cm /\
    forall minSeq deeper chunks nums, outputs_of c p cm minSeq deeper chunks ->
      length nums = length chunks -> fresh_nums v nums ->
      exists nv, finish c true v (compaction_edit cm (mk_outputs nums chunks)) = POk nv /\ wf_lsm c p nv.
Proof. exact compaction_step. Qed.
Print Assumptions C06_compaction_step.

(* ... also when level-0 tables (memdb flushes, transaction commits: newer than everything stored) were installed
   between picking and committing; v2 is the version at commit time. *)
Theorem C06_compaction_step_interleaved : forall c, comparer_ok c -> forall p, kparams_ok p -> forall sz v lvl limit seed,
  wf_lsm c p v -> seed_ok v lvl seed ->
  exists cm, new_compaction c sz v lvl limit seed = POk cm /\
    forall v2 minSeq deeper chunks nums, later_version c p v v2 -> outputs_of c p cm minSeq deeper chunks ->
      length nums = length chunks -> fresh_nums v2 nums ->
      exists nv, finish c true v2 (compaction_edit cm (mk_outputs nums chunks)) = POk nv /\ wf_lsm c p nv.
Proof. exact compaction_step_interleaved. Qed.
Print Assumptions C06_compaction_step_interleaved.

(* Trivial move: whenever compaction.trivial() holds, re-adding the single source table one level down keeps the
   invariant. *)
Theorem C06_trivial_move_step : forall c, comparer_ok c -> forall p sz v lvl limit seed,
  wf_lsm c p v -> seed_ok v lvl seed ->
  exists cm, new_compaction c sz v lvl limit seed = POk cm /\
    forall max_gp, trivial sz cm max_gp = true ->
      exists nv, finish c true v (move_edit cm) = POk nv /\ wf_lsm c p nv.
Proof. exact trivial_move_step. Qed.
Print Assumptions C06_trivial_move_step.

(* Flush step: the table placed at pickMemdbLevel keeps the invariant, including the cross-level clause (nothing above
   it shares a user key with it; everything below is older), for every maxLevel and every grandparent limit. *)
Theorem C06_flush_step : forall c, comparer_ok c -> forall p, kparams_ok p -> forall sz v gp_limit maxLevel t,
  wf_lsm c p v -> seqs_fit p v -> flushed_ok c p v t ->
  exists nv, finish c true v (flush_edit c p sz v gp_limit maxLevel t) = POk nv /\ wf_lsm c p nv.
Proof. exact flush_step. Qed.
Print Assumptions C06_flush_step.

(* The entry-level hypotheses of compaction_preserves / certificate_sound are discharged for model-built compactions:
   reads at every sequence number >= minSeq are preserved (M = the entries of the write buffers). *)
Theorem C06_model_compaction_admissible : forall c, comparer_ok c -> forall p, kparams_ok p -> forall sz v lvl limit seed,
  wf_lsm c p v -> seed_ok v lvl seed ->
  exists cm, new_compaction c sz v lvl limit seed = POk cm /\
    forall M minSeq, minSeq < keyMaxSeq p -> uniq_in M ->
      (forall m i x, In m M -> In x (LE (lv v i)) -> e_uk x = e_uk m -> e_seq x < e_seq m) ->
      let inputs := c_t0 cm ++ c_t1 cm in
      let others := M ++ LE (filter (fun t => negb (is_input (nums_of inputs) t)) (concat v)) in
      forall k s, minSeq <= s ->
        History.res p (newest c k s (compact_entries c p minSeq (skipn (lvl + 2) v) inputs ++ others) None) =
        History.res p (newest c k s (LE inputs ++ others) None).
Proof. exact model_compaction_admissible. Qed.
Print Assumptions C06_model_compaction_admissible.

(* Range compactions: getCompactionRange never panics and its seed (getOverlaps of the range, cut by the source limit)
   is a seed in the sense of the theorems above. *)
Theorem C06_range_compaction_seed : forall c, comparer_ok c -> forall p sz v lvl umin umax noLimit src_limit exp_limit,
  wf_lsm c p v ->
  exists r, compaction_range c sz v lvl umin umax noLimit src_limit exp_limit = POk r /\
    forall cm, r = Some cm -> exists seed, seed_ok v lvl seed /\ new_compaction c sz v lvl exp_limit seed = POk cm.
Proof. exact range_compaction_seed. Qed.
Print Assumptions C06_range_compaction_seed.

(* Non-vacuity: a three-level version satisfies the invariant; the model picks {9, 8} + {3, 4} from seed 9 (level-0
   closure), the compaction's single output installs into a well-formed version; a flushed table with fresh keys is
   placed at level 2 and the result is well-formed; a trivial move of table 5 to level 2 likewise. *)
Definition ex_e (k : N) (s : N) : entry := {| e_uk := [k]; e_seq := s; e_kind := 1; e_val := [] |}.
Definition ex_t (n : N) (es : list entry) : table := {| t_num := n; t_entries := es |}.
Definition ex_v : list (list table) :=
  [ [ ex_t 9 [ex_e 5 20; ex_e 7 19]; ex_t 8 [ex_e 1 18; ex_e 5 17] ];
    [ ex_t 3 [ex_e 0 5; ex_e 2 4]; ex_t 4 [ex_e 4 3; ex_e 6 2]; ex_t 5 [ex_e 8 1; ex_e 11 1] ] ]%N.

Example C06_step_nonvacuous :
  wf_lsmb bytewise kp ex_v = true /\
  seed_ok ex_v 0 [ex_t 9 [ex_e 5 20; ex_e 7 19]]%N /\
  (exists cm, new_compaction bytewise (fun _ => 100) ex_v 0 100000 [ex_t 9 [ex_e 5 20; ex_e 7 19]]%N = POk cm /\
     nums_of (c_t0 cm) = [9; 8]%N /\ nums_of (c_t1 cm) = [3; 4]%N /\
     let kept := compact_entries bytewise kp 0 (skipn 2 ex_v) (c_t0 cm ++ c_t1 cm) in
     cuts_ok bytewise [kept] = true /\
     match finish bytewise true ex_v (compaction_edit cm (mk_outputs [20%N] [kept])) with
     | POk nv => wf_lsmb bytewise kp nv = true /\ map nums_of nv = [[]; [20; 5]]%N
     | _ => False
     end) /\
  (let t := ex_t 30 [ex_e 20 40; ex_e 21 41]%N in
   flush_edit bytewise kp (fun _ => 100) ex_v (fun _ => 1000) 2 t = {| ed_del := []; ed_add := [(2%nat, t)] |} /\
   match finish bytewise true ex_v (flush_edit bytewise kp (fun _ => 100) ex_v (fun _ => 1000) 2 t) with
   | POk nv => wf_lsmb bytewise kp nv = true /\ map nums_of nv = [[9; 8]; [3; 4; 5]; [30]]%N
   | _ => False
   end) /\
  (exists cm, new_compaction bytewise (fun _ => 100) ex_v 1 100000 [ex_t 5 [ex_e 8 1; ex_e 11 1]]%N = POk cm /\
     trivial (fun _ => 100) cm 1000 = true /\
     match finish bytewise true ex_v (move_edit cm) with
     | POk nv => wf_lsmb bytewise kp nv = true /\ map nums_of nv = [[9; 8]; [3; 4]; [5]]%N
     | _ => False
     end).
Proof.
  split; [vm_compute; reflexivity|]. split.
  { split; [discriminate|]. split; [|repeat constructor; intros []].
    intros t [<-|[]]. left. reflexivity. }
  split; [eexists; split; [vm_compute; reflexivity|vm_compute; repeat split; reflexivity]|].
  split; [vm_compute; repeat split; reflexivity|].
  eexists. split; [vm_compute; reflexivity|vm_compute; repeat split; reflexivity].
Qed.

(* Why C06_compaction_step_interleaved requires the deeper levels to be unchanged between picking and committing: with
   memdbMaxLevel > 0 (a DB field marked "For testing"; the production value 0 flushes to level 0 only) a flush that
   commits while a table compaction is in flight can be placed by pickMemdbLevel INSIDE the user-key hull of that
   compaction's inputs, in the compaction's output level: pickMemdbLevel looks at the current tables only, the outputs do
   not exist yet.  Witness: level 1 = {1: keys 1..3, 2: keys 24..26}, a range compaction with both as seed (no level-2
   input; one output table spanning 1..26), meanwhile a flush of key 13 goes to level 2; committing the compaction then
   yields level 2 = {30: 13, 20: 1..26} — overlapping tables; a lookup of key 13 at level 2 consults table 20 only. *)
Definition ex_w : list (list table) :=
  [ []; [ ex_t 1 [ex_e 1 5; ex_e 3 4]; ex_t 2 [ex_e 24 3; ex_e 26 2] ] ]%N.

Example C06_deep_flush_during_compaction_refuted :
  wf_lsmb bytewise kp ex_w = true /\
  exists cm v2,
    new_compaction bytewise (fun _ => 100) ex_w 1 100000 (nth 1 ex_w []) = POk cm /\
    finish bytewise true ex_w (flush_edit bytewise kp (fun _ => 100) ex_w (fun _ => 1000) 2 (ex_t 30 [ex_e 13 40])) = POk v2 /\
    wf_lsmb bytewise kp v2 = true /\ map nums_of v2 = [[]; [1; 2]; [30]]%N /\
    let kept := compact_entries bytewise kp 0 [] (c_t0 cm ++ c_t1 cm) in
    cuts_ok bytewise [kept] = true /\
    match finish bytewise true v2 (compaction_edit cm (mk_outputs [20%N] [kept])) with
    | POk nv => map nums_of nv = [[]; []; [30; 20]]%N /\ wf_lsmb bytewise kp nv = false
    | _ => False
    end.
Proof.
  split; [vm_compute; reflexivity|]. eexists. eexists.
  split; [vm_compute; reflexivity|]. split; [vm_compute; reflexivity|].
  vm_compute. repeat split; reflexivity.
Qed.

(* tableCompactionBuilder (model Lsm/Builder.v): the run loop with shouldStopBefore / needFlush / the drop rule, the
   snapshot taken after a flush at a first-occurrence boundary, and compactionTransact's retries after transient
   errors (fresh iterator, skip of snapIter entries, restore of the builder's and the compaction's snapshot, cleanup of
   the partially written table). *)
From GL Require Import Lsm.Builder Lsm.BuilderBase Lsm.BuilderProofs Lsm.BuilderCuts Lsm.BuilderShape Lsm.BuilderStep.

(* Retry invariant: for EVERY input sequence (corrupted keys included, strict or not), every size function and limits, and
   EVERY history of failing attempts (one oracle per attempt: iterator error at any position, table creation / append
   error at any entry, flush error at any entry or at the end, failing cleanup), if compactionTransact returns normally
   then the builder is in exactly the state in which a single failure-free run ends: the same list of finished tables
   (entries of each table in order, recorded first/last key), the same dropCnt and kerrCnt.  No entry is processed twice
   or skipped at a resume point. *)
Theorem C06_builder_retry_invariant : forall c p sz gp maxgp deeper minSeq strict tableSize tsize items os s',
  transact c p sz gp maxgp deeper minSeq strict tableSize tsize os items (bst0 deeper) = (s', TDone) ->
  run_attempt c p sz gp maxgp deeper minSeq strict tableSize tsize o_ok items (bst0 deeper) = (s', ROk).
Proof. exact retry_invariant. Qed.
Print Assumptions C06_builder_retry_invariant.

(* The failing attempts themselves: an attempt that ends with a corruption error (corrupted key under StrictCompaction;
   compactionTransact then exits and reverts) ends exactly like the failure-free run, whatever failed before. *)
Theorem C06_builder_corrupt_exit : forall c p sz gp maxgp deeper minSeq strict tableSize tsize items o s,
  inv c p sz gp maxgp deeper minSeq strict tableSize tsize items s ->
  snd (run_attempt c p sz gp maxgp deeper minSeq strict tableSize tsize o items s) = RCorrupt ->
  run_attempt c p sz gp maxgp deeper minSeq strict tableSize tsize o items s =
  run_attempt c p sz gp maxgp deeper minSeq strict tableSize tsize o_ok items (bst0 deeper).
Proof. exact corrupt_exit_inv. Qed.
Print Assumptions C06_builder_corrupt_exit.

(* What the failure-free run — hence, by the retry invariant, every successful compactionTransact — writes for entries
   whose keys parse, ordered by user key, when the levels below the output level are ordered and disjoint: the tables
   concatenated are Compact.drop_run with the stateless base-level test (the function drop_rule_sound and
   compaction_preserves are about; the cursors tPtrs answer like is_base), the CONCRETE cut rule — shouldStopBefore and
   needFlush consulted only at the first occurrence of a user key — satisfies the abstract cuts_ok, kerrCnt = 0 and
   dropCnt = number of dropped entries. *)
Theorem C06_builder_good_run : forall c, comparer_ok c -> forall p sz gp maxgp deeper,
  Forall (lvl_ok c p) deeper -> forall minSeq strict tableSize tsize es os s',
  uk_sorted c es ->
  transact c p sz gp maxgp deeper minSeq strict tableSize tsize os (map IGood es) (bst0 deeper) = (s', TDone) ->
  out_items s' = map (map IGood) (fin s') /\
  cuts_ok c (fin s') = true /\
  concat (fin s') = drop_run c p minSeq (is_base c deeper) None es /\
  kerr s' = 0 /\
  drop s' + N.of_nat (length (drop_run c p minSeq (is_base c deeper) None es)) = N.of_nat (length es).
Proof. exact transact_good. Qed.
Print Assumptions C06_builder_good_run.

(* The abstraction of C06_compaction_step discharged: for the compaction the model picker builds on a well-formed
   version, the tables the builder has recorded when compactionTransact returns — after any transient failures — are
   outputs in the sense of the step theorems (cuts_ok and concat = compact_entries), ... *)
Theorem C06_builder_cuts_ok : forall c, comparer_ok c -> forall p, kparams_ok p -> forall sz v lvl limit seed,
  wf_lsm c p v -> seed_ok v lvl seed ->
  exists cm, new_compaction c sz v lvl limit seed = POk cm /\
    forall gp maxgp minSeq strict tableSize tsize os s',
      let deeper := skipn (lvl + 2) v in
      let es := merge_inputs c (c_t0 cm ++ c_t1 cm) in
      transact c p sz gp maxgp deeper minSeq strict tableSize tsize os (map IGood es) (bst0 deeper) = (s', TDone) ->
      out_items s' = map (map IGood) (fin s') /\
      outputs_of c p cm minSeq deeper (fin s') /\
      kerr s' = 0 /\
      drop s' + N.of_nat (length (compact_entries c p minSeq deeper (c_t0 cm ++ c_t1 cm))) = N.of_nat (length es).
Proof. exact builder_outputs_of. Qed.
Print Assumptions C06_builder_cuts_ok.

(* ... so installing them keeps the invariant (also when level-0 tables were installed meanwhile). *)
Theorem C06_builder_compaction_step : forall c, comparer_ok c -> forall p, kparams_ok p -> forall sz v lvl limit seed,
  wf_lsm c p v -> seed_ok v lvl seed ->
  exists cm, new_compaction c sz v lvl limit seed = POk cm /\
    forall gp maxgp minSeq strict tableSize tsize os s' nums,
      let deeper := skipn (lvl + 2) v in
      transact c p sz gp maxgp deeper minSeq strict tableSize tsize os
               (map IGood (merge_inputs c (c_t0 cm ++ c_t1 cm))) (bst0 deeper) = (s', TDone) ->
      length nums = length (fin s') -> fresh_nums v nums ->
      exists nv, finish c true v (compaction_edit cm (mk_outputs nums (fin s'))) = POk nv /\ wf_lsm c p nv.
Proof. exact builder_compaction_step. Qed.
Print Assumptions C06_builder_compaction_step.

Theorem C06_builder_compaction_step_interleaved : forall c, comparer_ok c -> forall p, kparams_ok p ->
  forall sz v lvl limit seed, wf_lsm c p v -> seed_ok v lvl seed ->
  exists cm, new_compaction c sz v lvl limit seed = POk cm /\
    forall v2 gp maxgp minSeq strict tableSize tsize os s' nums,
      let deeper := skipn (lvl + 2) v in
      later_version c p v v2 ->
      transact c p sz gp maxgp deeper minSeq strict tableSize tsize os
               (map IGood (merge_inputs c (c_t0 cm ++ c_t1 cm))) (bst0 deeper) = (s', TDone) ->
      length nums = length (fin s') -> fresh_nums v2 nums ->
      exists nv, finish c true v2 (compaction_edit cm (mk_outputs nums (fin s'))) = POk nv /\ wf_lsm c p nv.
Proof. exact builder_compaction_step_interleaved. Qed.
Print Assumptions C06_builder_compaction_step_interleaved.

(* Every table the builder records — any input, any failure history, any way compactionTransact ends — is non-empty, its
   recorded largest key is its last entry, its recorded smallest key its first entry with a non-empty key (for entries
   whose keys parse: its first entry). *)
Theorem C06_builder_outputs_shape : forall c p sz gp maxgp deeper minSeq strict tableSize tsize items os,
  Forall shape_o (recs (fst (transact c p sz gp maxgp deeper minSeq strict tableSize tsize os items (bst0 deeper)))).
Proof. exact outputs_shape. Qed.
Print Assumptions C06_builder_outputs_shape.

(* shouldStopBefore asked twice for the same key answers false the second time and changes nothing: the [resumed] flag of
   run (which suppresses the call for the first entry after a resume) does not influence the result. *)
Theorem C06_builder_resumed_flag_redundant : forall c sz gp maxgp x ik,
  let x1 := snd (should_stop c sz gp maxgp x ik) in
  should_stop c sz gp maxgp x1 ik = (false, x1).
Proof. exact should_stop_idempotent. Qed.
Print Assumptions C06_builder_resumed_flag_redundant.

(* Likewise the restored hasLastUkey / lastUkey / lastSeq: the entry at which a resumed run starts is a first occurrence
   whatever they are (the snapshot is taken at a first-occurrence boundary and the writer is gone), so a run resumed with
   hasLastUkey = false performs the same iteration.  (Both facts explain why the two corresponding source changes are
   equivalent mutants.) *)
Theorem C06_builder_restored_last_key_redundant : forall c p sz gp maxgp deeper minSeq tableSize tsize o i e m u q,
  tw m = None -> first_occ c m (e_uk e) = true ->
  step_good c p sz gp maxgp deeper minSeq tableSize tsize o true i e (set_last m false u q) =
  step_good c p sz gp maxgp deeper minSeq tableSize tsize o true i e m.
Proof. exact resume_last_irrelevant. Qed.
Print Assumptions C06_builder_restored_last_key_redundant.

(* Non-vacuity: seven entries (user keys 1..5, minSeq 8: the tombstone 2@8 and the older 2@3 are dropped), tables are
   full after two entries; six failing attempts — flush error at entry 2; append error at entry 4 after the snapshot at 2;
   iterator error at position 1 while skipping; flush error at entry 6; error of the final flush; table creation error
   at entry 6 with a failing cleanup before — then a clean one.  The result is the failure-free one: three tables
   {1@9 1@7} {3@6 4@5} {5@4}, dropCnt 2. *)
Definition bx_e (k s kind : N) : entry := {| e_uk := [k]; e_seq := s; e_kind := kind; e_val := [] |}.
Definition bx_items : list item :=
  map IGood [bx_e 1 9 1; bx_e 1 7 1; bx_e 2 8 0; bx_e 2 3 1; bx_e 3 6 1; bx_e 4 5 1; bx_e 5 4 1].
Definition bx_o (nx : nat -> bool) (ap : nat -> afault) (fl : nat -> bool) (cl : bool) : oracle :=
  {| o_closed := false; o_next := nx; o_append := ap; o_flush := fl; o_cleanup := cl; o_perr := false;
     o_closed_sel := false |}.
Definition bx_os : list oracle :=
  [ bx_o (fun _ => false) (fun _ => AOk) (Nat.eqb 2) false;
    bx_o (fun _ => false) (fun i => if Nat.eqb i 4 then AWrite else AOk) (fun _ => false) false;
    bx_o (Nat.eqb 1) (fun _ => AOk) (fun _ => false) false;
    bx_o (fun _ => false) (fun _ => AOk) (Nat.eqb 6) true;
    bx_o (fun _ => false) (fun _ => AOk) (Nat.eqb 7) false;
    bx_o (fun _ => false) (fun i => if Nat.eqb i 6 then ACreate else AOk) (fun _ => false) true;
    o_ok ].
Definition bx_size (l : list item) : N := 10 * N.of_nat (length l).

Example C06_builder_nonvacuous :
  exists s', transact bytewise kp (fun _ => 100) [] 1000 [] 8 true 20 bx_size bx_os bx_items (bst0 []) = (s', TDone) /\
    out_items s' = [ map IGood [bx_e 1 9 1; bx_e 1 7 1]; map IGood [bx_e 3 6 1; bx_e 4 5 1]; map IGood [bx_e 5 4 1] ] /\
    drop s' = 2 /\ kerr s' = 0 /\ sn_iter (snap s') = 6%nat /\
    run_attempt bytewise kp (fun _ => 100) [] 1000 [] 8 true 20 bx_size o_ok bx_items (bst0 []) = (s', ROk) /\
    cuts_ok bytewise (fin s') = true /\
    (* the first six attempts do fail: with one oracle fewer the fuel runs out *)
    snd (transact bytewise kp (fun _ => 100) [] 1000 [] 8 true 20 bx_size (firstn 6 bx_os) bx_items (bst0 [])) = TOutOfFuel.
Proof. eexists. split; [vm_compute; reflexivity|]. vm_compute. repeat split; reflexivity. Qed.

(* Outside the hypotheses of C06_builder_good_run — a corrupted key, StrictCompaction off: "Don't drop corrupted keys"
   resets hasLastUkey, so the next entry of the SAME user key counts as a first occurrence and the table may be rotated
   there.  Witness: 1@5, a key with user key 1 and an invalid kind, 1@3, tables full after one entry: user key 1 ends up in
   two tables of one level (and 1@3 is not dropped although 1@5 is newer and minSeq = 9).  With StrictCompaction (the
   default) the same input makes compactionTransact exit with nothing installed. *)
Example C06_builder_corrupted_key_splits_user_key_refuted :
  let items := [IGood (bx_e 1 5 1); IBad [1; 7; 4; 0; 0; 0; 0; 0; 0] []; IGood (bx_e 1 3 1)] in
  (exists s', transact bytewise kp (fun _ => 100) [] 1000 [] 9 false 10 bx_size [o_ok] items (bst0 []) = (s', TDone) /\
     out_items s' = [[IGood (bx_e 1 5 1); IBad [1; 7; 4; 0; 0; 0; 0; 0; 0] []]; [IGood (bx_e 1 3 1)]] /\
     kerr s' = 1 /\ cuts_ok bytewise (fin s') = false) /\
  (exists s', transact bytewise kp (fun _ => 100) [] 1000 [] 9 true 10 bx_size [o_ok] items (bst0 []) = (s', TExit) /\
     recs s' = []).
Proof. split; eexists; (split; [vm_compute; reflexivity|]); vm_compute; repeat split; reflexivity. Qed.

(* The LOOPS that drive table compactions (model Lsm/RangeCompact.v): the retry loop of DB.CompactRange
   (tableRangeCompaction, level = -1) and the background loop (tCompaction repeating tableAutoCompaction while
   needCompaction).  One compaction = the model step of the theorems above; the tables it writes come from an output
   oracle [bld] of which the theorems assume bld_ok (what C06_builder_cuts_ok proves of Builder.v's run: chunks of the
   kept merged entries, cut between different user keys, under unused numbers); ms k is the minSeq of the k-th compaction. *)
From GL Require Import Lsm.RangeCompact Lsm.RangeStep Lsm.RangeProofs Lsm.AutoProofs Lsm.RangeReads.
From Coq Require Import ZArith Lia.

(* Termination of the CompactRange retry loop when no new table arrives in between, with an explicit fuel bound:
   range_fuel v = 1 + max 1 (levels - 1) * (number of stored entries).  Measure: the sum over the levels l < K of
   (entries in level l) * (K - l), K = max 1 (levels - 1): each compaction of a pass takes a >= 1 entries out of a level
   below m <= K and adds at most a one level down (the number of tables is no measure: one input may be cut into many
   outputs); a pass that compacts nothing ends the loop.  No panic, no exhausted inner fuel. *)
Theorem C06_compact_range_terminates : forall c, comparer_ok c -> forall p, kparams_ok p -> forall sz o bld ms,
  bld_ok c p sz o bld ms -> forall st umin umax, wf_lsm c p (cp_v st) ->
  forall fuel, (range_fuel (cp_v st) <= fuel)%nat ->
  exists st' passes, compact_range c p sz o bld fuel st umin umax [] = POk (st', passes).
Proof. exact compact_range_terminates. Qed.
Print Assumptions C06_compact_range_terminates.

(* What it returns with (for ANY fuel with which it returns): the version is well-formed; with m = the deepest level
   >= 1 holding a table that overlaps the range (1 if none), no table of a level above m overlaps the range and
   tFiles.overlaps answers false for every level below m (hence, for tables whose sequence numbers fit 56 bits, no table
   there overlaps either): all data of the range sits in ONE level.  The last pass is the one that found nothing to do;
   the passes before it exist because getCompactionRange cuts the overlapping tables of a level > 0 to the shortest
   prefix reaching the source limit (C06_range_compaction_seed: never empty), so one pass may move only part of a level.
   No level beyond max 1 (levels - 1) was created.  Reads are unchanged: the read path returns on the final version what
   it returned on the initial one, for every key at every sequence number at or above every compaction's minSeq. *)
Theorem C06_compact_range_post : forall c, comparer_ok c -> forall p, kparams_ok p -> forall sz o bld ms,
  bld_ok c p sz o bld ms -> (forall j, ms j < keyMaxSeq p) ->
  forall st umin umax fuel st' passes, wf_lsm c p (cp_v st) ->
  compact_range c p sz o bld fuel st umin umax [] = POk (st', passes) ->
  wf_lsm c p (cp_v st') /\
  (let m := range_max_level c p (cp_v st') umin umax in
   (forall l t, (l < m)%nat -> In t (lv (cp_v st') l) -> t_overlaps c t umin umax = false) /\
   (forall l, (m < l)%nat -> files_overlaps c p (lv (cp_v st') l) umin umax false = false) /\
   (forall l t, (m < l)%nat -> (forall u, In u (lv (cp_v st') l) -> e_seq (t_hi u) <= keyMaxSeq p) ->
      In t (lv (cp_v st') l) -> t_overlaps c t umin umax = false) /\
   last passes (0%nat, []) = (m, [])) /\
  levels_below (cp_v st') (S (range_depth (cp_v st))) /\
  (forall k s, safe_seq ms s -> api_of (lsm_get c p (lst (cp_v st')) k s) = api_of (lsm_get c p (lst (cp_v st)) k s)).
Proof. exact compact_range_post_full. Qed.
Print Assumptions C06_compact_range_post.

(* The background loop reaches needCompaction = false without writes — CONDITIONALLY.  goleveldb has no deepest level:
   computeCompaction scores every level, the deepest included, against GetCompactionTotalSize(level), and a level whose
   score reaches 1 is compacted into the next one, creating it if need be.  Hypotheses: a table weighs at most Bz bytes
   per entry, and from level K on (K >= the number of levels) the level limit exceeds Bz * (stored entries) — true for
   some K whenever the limits grow without bound (CompactionTotalSizeMultiplier > 1).  Then within K * (stored entries)
   steps — size-triggered, seek-triggered, trivial moves and rewrites alike — the loop stops with a well-formed version
   that needs no compaction and has no level beyond K.  Same measure as above.  Without the growth hypothesis the
   statement is false: C06_auto_compaction_quiesces_refuted. *)
Theorem C06_auto_compaction_quiesces : forall c, comparer_ok c -> forall p, kparams_ok p -> forall sz o bld ms,
  bld_ok c p sz o bld ms -> forall st Bz K,
  wf_lsm c p (cp_v st) -> seek_in st -> size_bounded sz Bz -> (1 <= K)%nat -> (length (cp_v st) <= K)%nat ->
  limits_exceed o Bz (elen (concat (cp_v st))) K ->
  forall fuel, (K * elen (concat (cp_v st)) <= fuel)%nat ->
  exists st', auto_loop c sz o bld fuel st = POk st' /\ need_compaction sz o st' = false /\ wf_lsm c p (cp_v st') /\
              levels_below (cp_v st') (S K).
Proof. exact auto_compaction_quiesces. Qed.
Print Assumptions C06_auto_compaction_quiesces.

(* ... and whenever it stops, reads are what they were. *)
Theorem C06_auto_compaction_reads : forall c, comparer_ok c -> forall p, kparams_ok p -> forall sz o bld ms,
  bld_ok c p sz o bld ms -> (forall j, ms j < keyMaxSeq p) ->
  forall fuel st st', wf_lsm c p (cp_v st) -> seek_in st -> auto_loop c sz o bld fuel st = POk st' ->
  forall k s, safe_seq ms s -> api_of (lsm_get c p (lst (cp_v st')) k s) = api_of (lsm_get c p (lst (cp_v st)) k s).
Proof. exact auto_loop_get. Qed.
Print Assumptions C06_auto_compaction_reads.

(* The write throttle: a version that needs no compaction has fewer level-0 tables than WriteL0PauseTrigger, so
   DB.resumeWrite holds and paused writers are released — provided 0 < CompactionL0Trigger <= WriteL0PauseTrigger
   (an explicit hypothesis about the option getters; with CompactionL0Trigger < 0 the level-0 score is never >= 1 and
   with CompactionL0Trigger > WriteL0PauseTrigger a quiescent DB may keep writers paused). *)
Theorem C06_quiescent_resumes_write : forall sz o st,
  need_compaction sz o st = false -> (0 < o_l0_trigger o)%Z -> (o_l0_trigger o <= o_l0_pause o)%Z ->
  resume_write o st = true.
Proof. exact quiescent_resumes_write. Qed.
Print Assumptions C06_quiescent_resumes_write.

(* Every table compaction leaves the compaction pointer of its source level at the compaction's imax and the other
   pointers alone (the repaired behaviour; see C06_comp_ptr_lost_on_manifest_rotation_refuted for the code before). *)
Theorem C06_comp_ptr_advances : forall c, comparer_ok c -> forall p, kparams_ok p -> forall sz o bld ms,
  bld_ok c p sz o bld ms -> forall st lvl seed cm noTrivial st',
  wf_lsm c p (cp_v st) -> seed_ok (cp_v st) lvl seed ->
  new_compaction c sz (cp_v st) lvl (o_exp_limit o lvl) seed = POk cm ->
  table_compaction c sz o bld st cm noTrivial = POk st' ->
  get_ptr (cp_ptrs st') lvl = Some (c_imax cm) /\
  forall l, l <> lvl -> get_ptr (cp_ptrs st') l = get_ptr (cp_ptrs st) l.
Proof. exact comp_ptr_advances. Qed.
Print Assumptions C06_comp_ptr_advances.

(* The hypothesis bld_ok is satisfiable: the one-output-table oracle of the model file satisfies it for every
   comparer, options and minSeq function. *)
Theorem C06_simple_builder_admissible : forall c, comparer_ok c -> forall p sz o ms,
  bld_ok c p sz o (simple_bld c p ms) ms.
Proof. exact simple_bld_ok. Qed.
Print Assumptions C06_simple_builder_admissible.

(* Non-vacuity.  A three-level version, tables of 100 bytes, source limit 150: CompactRange [0, 12] needs TWO compacting
   passes — pass 1 (m = 2) takes only tables 3 and 4 of level 1 (the shortest prefix reaching the limit) with table 1 of
   level 2; pass 2 takes the rest (table 5) with the output of pass 1; pass 3 finds nothing.  Everything ends in level 2,
   the fuel bound is 17, both compaction pointers of level 1 were set.  With growing level limits the background loop
   stops after one step (level 1 holds 300 >= 250 bytes: table 3 is rewritten together with table 1 of level 2 into
   table 6 of level 2, after which no level needs compaction). *)
Definition rx_v : list (list table) :=
  [ []; [ ex_t 3 [ex_e 0 5; ex_e 2 4]; ex_t 4 [ex_e 4 3; ex_e 6 2]; ex_t 5 [ex_e 8 1; ex_e 11 1] ];
    [ ex_t 1 [ex_e 2 0; ex_e 9 0] ] ]%N.
Definition rx_sz (t : table) : N := 50 * N.of_nat (length (t_entries t)).
Definition rx_o : copts :=
  {| o_src_limit := fun _ => 150; o_exp_limit := fun _ => 0; o_gp_limit := fun _ => 1000;
     o_tot_limit := fun l => match l with 1%nat => 250%Z | _ => 100000%Z end; o_l0_trigger := 4%Z; o_l0_pause := 12%Z |}.
Definition rx_st : cpstate := {| cp_v := rx_v; cp_ptrs := []; cp_seek := None; cp_n := 0 |}.
Definition rx_bld := simple_bld bytewise kp (fun _ => 0).

Example C06_loops_nonvacuous :
  wf_lsmb bytewise kp rx_v = true /\ range_fuel rx_v = 17%nat /\
  (exists st' passes, compact_range bytewise kp rx_sz rx_o rx_bld 17 rx_st (Some [0]) (Some [12]) [] = POk (st', passes) /\
     map nums_of (cp_v st') = [[]; []; [7]]%N /\
     map (fun ps => (fst ps, map (fun cm => (c_level cm, nums_of (c_t0 cm), nums_of (c_t1 cm))) (snd ps))) passes =
       [ (2%nat, [(1%nat, [3; 4], [1])]); (2%nat, [(1%nat, [5], [6])]); (2%nat, []) ]%N /\
     wf_lsmb bytewise kp (cp_v st') = true /\ get_ptr (cp_ptrs st') 1 <> None) /\
  need_compaction rx_sz rx_o rx_st = true /\
  (exists st', auto_loop bytewise rx_sz rx_o rx_bld 16 rx_st = POk st' /\ need_compaction rx_sz rx_o st' = false /\
     map nums_of (cp_v st') = [[]; [4; 5]; [6]]%N /\ resume_write rx_o st' = true).
Proof.
  split; [vm_compute; reflexivity|]. split; [vm_compute; reflexivity|].
  split; [eexists; eexists; split; [vm_compute; reflexivity|vm_compute; repeat split; try reflexivity; discriminate]|].
  split; [vm_compute; reflexivity|]. eexists. split; [vm_compute; reflexivity|]. vm_compute. repeat split; reflexivity.
Qed.

(* REFUTED without the growth hypothesis (reproduced on the real DB, see
   known_findings_C06.txt: flat-level-limits-endless-moves).  FLAT level limits (CompactionTotalSizeMultiplier = 1: every
   level may hold 50 bytes) and ONE table of 100 bytes in level 1: the table's level always scores 2, so every step is
   a trivial move one level down into a level that scores 2 again.  Every other hypothesis of
   C06_auto_compaction_quiesces holds (well-formed, no cSeek, size bound, K = 2 >= levels); the bound of the theorem
   would be K * entries = 4 steps; after 300 steps the loop is still running: fuel 300 is exhausted, the table sits
   in level 301 and needCompaction holds.  (The real DB additionally stops by accident when
   multiplier^level underflows, e.g. after ~1075 moves with multiplier 0.5; with multiplier 1 it never stops.) *)
Definition fx_o : copts :=
  {| o_src_limit := fun _ => 150; o_exp_limit := fun _ => 100000; o_gp_limit := fun _ => 1000;
     o_tot_limit := fun _ => 50%Z; o_l0_trigger := 4%Z; o_l0_pause := 12%Z |}.
Definition fx_st : cpstate :=
  {| cp_v := [ []; [ ex_t 3 [ex_e 0 5; ex_e 2 4] ] ]%N; cp_ptrs := []; cp_seek := None; cp_n := 0 |}.
Fixpoint auto_steps (n : nat) (st : cpstate) : pres cpstate :=
  match n with
  | O => POk st
  | S n' => pdo st' <- auto_step bytewise rx_sz fx_o rx_bld st; auto_steps n' st'
  end.

(* In general: with FLAT level limits (every level may hold lim > 0 bytes) and a size function
   under which no table is lighter than lim, from a well-formed version with an empty level 0, no cSeek and some readable
   key the background loop never stops, whatever fuel it is given.  (Reads are preserved by every step, so a table
   always exists; nothing moves up, so it lives in a level >= 1, which scores >= 1.) *)
Theorem C06_flat_limits_never_idle : forall c, comparer_ok c -> forall p, kparams_ok p -> forall sz o bld ms,
  bld_ok c p sz o bld ms -> (forall j, ms j < keyMaxSeq p) ->
  forall lim, 0 < lim -> (forall l, o_tot_limit o l = Z.of_N lim) -> (forall t, t_entries t <> [] -> lim <= sz t) ->
  forall k0 s0, safe_seq ms s0 -> forall val fuel st,
  restless c p k0 s0 val st -> auto_loop c sz o bld fuel st = POutOfFuel.
Proof. exact flat_limits_never_idle. Qed.
Print Assumptions C06_flat_limits_never_idle.

Example C06_auto_compaction_never_quiesces_refuted :
  forall fuel, auto_loop bytewise rx_sz fx_o rx_bld fuel fx_st = POutOfFuel.
Proof.
  intros fuel.
  apply (C06_flat_limits_never_idle bytewise bytewise_ok kp kp_ok rx_sz fx_o rx_bld (fun _ => 0)
           (simple_bld_ok bytewise bytewise_ok kp rx_sz fx_o (fun _ => 0)) ltac:(intros j; vm_compute; reflexivity)
           50 ltac:(reflexivity) ltac:(intros l; reflexivity)
           ltac:(intros t H; unfold rx_sz; destruct (t_entries t) as [|e r]; [congruence|cbn [length]; rewrite Nat2N.inj_succ; nia])
           [0] 10 ltac:(intros j; vm_compute; discriminate) [] fuel fx_st).
  split; [apply (wf_lsmb_sound bytewise bytewise_ok kp); vm_compute; reflexivity|].
  split; [reflexivity|]. split; [reflexivity|]. vm_compute. reflexivity.
Qed.

(* The run itself: the table is alone in the version and scores 2 wherever it sits, so each step is
   AutoProofs.lone_step. *)
Definition fx_t : table := ex_t 3 [ex_e 0 5; ex_e 2 4]%N.
Lemma fx_steps : forall n l st, lone fx_t l (cp_v st) ->
  exists st', auto_steps n st = POk st' /\ lone fx_t (l + n) (cp_v st') /\ cp_n st' = (cp_n st + n)%nat.
Proof.
  induction n as [|n IH]; intros l st L; cbn [auto_steps].
  - exists st. rewrite !Nat.add_0_r. split; [reflexivity|split; [exact L|reflexivity]].
  - destruct (lone_step bytewise rx_sz fx_o rx_bld fx_t l st L eq_refl) as [st1 [E [L1 N1]]]. rewrite E. cbn [pbind].
    destruct (IH (S l) st1 L1) as [st' [E' [L' N']]]. exists st'. rewrite <- !Nat.add_succ_comm, <- N1. auto.
Qed.

Example C06_auto_compaction_quiesces_refuted :
  wf_lsmb bytewise kp (cp_v fx_st) = true /\ seek_in fx_st /\ size_bounded rx_sz 50 /\
  (length (cp_v fx_st) <= 2)%nat /\ (2 * elen (concat (cp_v fx_st)) = 4)%nat /\
  ~ limits_exceed fx_o 50 (elen (concat (cp_v fx_st))) 2 /\
  auto_loop bytewise rx_sz fx_o rx_bld 300 fx_st = POutOfFuel /\
  (exists st', auto_steps 300 fx_st = POk st' /\ need_compaction rx_sz fx_o st' = true /\
     length (cp_v st') = 302%nat /\ nums_of (nth 301 (cp_v st') []) = [3]%N /\ cp_n st' = 300%nat).
Proof.
  split; [vm_compute; reflexivity|]. split; [intros l t H; discriminate|].
  split; [intros t; unfold rx_sz; apply N.le_refl|]. split; [vm_compute; repeat constructor|]. split; [vm_compute; reflexivity|].
  split; [intros H; specialize (H 2%nat (le_n 2)); vm_compute in H; discriminate|].
  split; [apply C06_auto_compaction_never_quiesces_refuted|].
  destruct (fx_steps 300 0 fx_st ltac:(split; [reflexivity|split; [reflexivity|intros [|[|[|j]]] Hj; [reflexivity|congruence|reflexivity..]]])) as [st' [E [L En]]].
  exists st'. split; [exact E|]. split; [apply (lone_needs rx_sz fx_o fx_t 300 st' L eq_refl)|].
  destruct L as [Hl [Ht _]]. split; [exact Hl|]. split; [|exact En]. unfold lv in Ht. cbn [Nat.add] in Ht. rewrite Ht. reflexivity.
Qed.

(* REFUTED for the code before the repair (found by the KRange correspondence: observed compaction pointers after a
   range compaction differed from the model's whenever MaxManifestFileSize made the commit rotate the manifest): the
   record of a rotating commit dropped rec.compPtrs, so the pointer of the source level did not advance — here: stays
   unset — and the next size-triggered pick of that level starts at tables[0] again instead of behind the last
   compaction (with every commit rotating, the round-robin over the key space never moves). *)
Example C06_comp_ptr_lost_on_manifest_rotation_refuted :
  exists cm st1 st2,
    new_compaction bytewise rx_sz rx_v 1 0 [ex_t 4 [ex_e 4 3; ex_e 6 2]]%N = POk cm /\
    table_compaction bytewise rx_sz rx_o rx_bld rx_st cm false = POk st1 /\
    table_compaction_unrepaired bytewise rx_sz rx_o rx_bld true rx_st cm false = POk st2 /\
    cp_v st2 = cp_v st1 /\ get_ptr (cp_ptrs st1) 1 = Some (c_imax cm) /\ get_ptr (cp_ptrs st2) 1 = None /\
    (* the next size-triggered pick of level 1 (its limit lowered to 50; table 4 was compacted): behind the pointer
       (table 5) vs tables[0] (table 3) *)
    let o2 := {| o_src_limit := o_src_limit rx_o; o_exp_limit := o_exp_limit rx_o; o_gp_limit := o_gp_limit rx_o;
                 o_tot_limit := fun l => match l with 1%nat => 50%Z | _ => 100000%Z end; o_l0_trigger := 4%Z; o_l0_pause := 12%Z |} in
    (exists s1 s2 ty, pick_seed bytewise rx_sz o2 st1 = POk (Some (1%nat, [s1], ty)) /\
                      pick_seed bytewise rx_sz o2 st2 = POk (Some (1%nat, [s2], ty)) /\ t_num s1 = 5%N /\ t_num s2 = 3%N).
Proof.
  eexists. eexists. eexists. split; [vm_compute; reflexivity|]. split; [vm_compute; reflexivity|].
  split; [vm_compute; reflexivity|]. split; [reflexivity|]. split; [vm_compute; reflexivity|]. split; [vm_compute; reflexivity|].
  cbv zeta. eexists. eexists. eexists. split; [vm_compute; reflexivity|]. split; [vm_compute; reflexivity|].
  split; reflexivity.
Qed.
