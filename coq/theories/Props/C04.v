(* Props/C04.v — property C04: crash at any instant — synced writes survive, batches stay atomic, the DB
   reopens.  Theorems are closed by lemmas of Store/ and followed by Print Assumptions; witnesses and non-vacuity
   Examples, with the histories they use (defined here), are evaluated.  The first part is at record granularity (Store/Crash.v): a
   crash leaves, per file, any prefix of its records that contains the synced prefix (cuts inside a record, zero or
   garbage tails are reduced to this by C12's truncation/damage theorems), never-synced files may vanish, and
   namespace operations are atomic and ordered.  The parts after it, each importing what it needs where it begins:
   the byte level of journals and manifests (Store/CrashBytes.v); the manifest record codec (Codec/SessionRecord.v);
   Open as a whole on byte images (Store/OpenPath.v) — read-only, read-write (partial correctness, then totality),
   idempotence; Open on a directory of the real file storage; the tables the recovery flushes. *)
From GL Require Import Store.Crash Store.CrashProofs.
From GL Require Import Base.Bytes Codec.Crc Codec.Journal Codec.JournalSpec Store.CrashBytes Store.CrashBytesProofs
  Gen.Consts Gen.InstJournal Gen.InstJournalOk.

(* For every history of writes (with or without sync), failed journal writes, journal syncs, buffer rotations,
   flushes (table, edit, manifest sync, journal removal — each a separate crash point), transaction commits,
   compaction edits, AND crashes followed by recovery (PRestart leaves any admissible image and replays it into
   memory; the flushes recovery then performs are ordinary steps, hence crash points again — nested crashes),
   and for every admissible crash image of the state reached: recovery contains every batch acknowledged as
   durable, only batches that were issued, each at most once and in issue order — so the recovered contents
   are those of a subset of the issued batches applied in their original order, every batch entirely present
   or entirely absent. *)
Theorem C04_crash_safe : forall ops img, is_image (prun ops) img ->
  (forall b, In b (p_acked (prun ops)) -> In b (recover img)) /\
  (forall b, In b (recover img) -> In b (p_issued (prun ops))) /\
  sorted_b (recover img).
Proof. exact crash_safe. Qed.
Print Assumptions C04_crash_safe.

(* the invariant behind it holds in every reachable state (so recovery can be followed by more history) *)
Theorem C04_invariant_reachable : forall ops, pinv (prun ops).
Proof. exact pinv_run. Qed.
Print Assumptions C04_invariant_reachable.

(* Non-vacuity and necessity of the ordering obligations, by computation. *)
Definition ex_ops : list pop :=
  [PWrite 2 true; PWrite 1 false; PRotate; PWrite 3 true; PFlushEdit; PManSync; PDropFrozen; PTxnCommit 0;
   PWrite 1 true; PCompactEdit].

(* a crash in the middle of that history, recovery, more writes, and a second crash inside the second
   recovery's flush: the batches acknowledged with sync before each crash are still there *)
Definition ex_ops_nested : list pop :=
  [PWrite 2 true; PWrite 1 false; PRotate; PWrite 3 true; PFlushEdit;
   PRestart 0 0 0;                      (* crash: unsynced manifest tail and journal tails lost *)
   PFlushEdit; PManSync; PDropFrozen; PRotate; PFlushEdit;   (* recovery flushes both journals ... *)
   PRestart 0 0 0;                      (* ... and is itself interrupted *)
   PRotate; PFlushEdit; PManSync; PDropFrozen; PWrite 1 true].
Example C04_nonvacuous_nested :
  let s := prun ex_ops_nested in
  recover (mk_image s 0 0 0) = [{| b_seq := 1; b_n := 2 |}; {| b_seq := 4; b_n := 3 |}; {| b_seq := 8; b_n := 1 |}] /\
  p_acked s = [{| b_seq := 1; b_n := 2 |}; {| b_seq := 4; b_n := 3 |}; {| b_seq := 8; b_n := 1 |}].
Proof. split; vm_compute; reflexivity. Qed.

(* the weakest image (nothing unsynced survives) still recovers the three synced batches *)
Example C04_nonvacuous :
  let s := prun ex_ops in
  recover (mk_image s 0 0 0) =
    [{| b_seq := 1; b_n := 2 |}; {| b_seq := 3; b_n := 1 |}; {| b_seq := 4; b_n := 3 |}; {| b_seq := 7; b_n := 1 |}] /\
  p_acked s = [{| b_seq := 1; b_n := 2 |}; {| b_seq := 4; b_n := 3 |}; {| b_seq := 7; b_n := 1 |}].
Proof. split; vm_compute; reflexivity. Qed.

(* obligation (Rm)/(Mf): if the frozen journal were removed before the edit that supersedes it is durable, a
   crash that loses the unsynced manifest tail loses an acknowledged batch *)
Definition bad_drop (s : pstate) : pstate :=
  {| p_live := p_live s; p_frozen := None; p_fedit := false; p_fseq := p_fseq s; p_man := p_man s; p_msynced := p_msynced s;
     p_seq := p_seq s; p_issued := p_issued s; p_acked := p_acked s |}.
Example C04_obligation_remove_after_durable_needed :
  let s := bad_drop (prun [PWrite 2 true; PRotate; PFlushEdit]) in
  p_acked s = [{| b_seq := 1; b_n := 2 |}] /\ recover (mk_image s 0 0 0) = [].
Proof. split; vm_compute; reflexivity. Qed.

(* obligation (S): if a flush edit recorded a sequence number beyond the frozen buffer's last one (as a
   transaction committed ahead of a pending flush would), recovery skips the journal's batches *)
Example C04_obligation_seq_not_ahead_needed :
  recover {| i_live := {| j_num := 2; j_recs := [{| b_seq := 3; b_n := 1 |}]; j_synced := 1 |};
             i_frozen := Some {| j_num := 1; j_recs := [{| b_seq := 1; b_n := 2 |}]; j_synced := 1 |};
             i_man := [{| m_jnum := Some 1; m_seq := Some 0; m_tab := [] |};
                       {| m_jnum := None; m_seq := Some 9; m_tab := [{| b_seq := 4; b_n := 6 |}] |}] |}
  = [{| b_seq := 4; b_n := 6 |}].
Proof. vm_compute. reflexivity. Qed.

(* Byte level.  The theorems above quantify over record-level images.  What a crash really leaves of a journal
   or manifest file is a byte string: the bytes that were synced (a Sync happens after whole records: Next,
   Write, Flush, Sync in writeJournal / flushManifest), any further prefix of the bytes written since — cut at
   an arbitrary byte — and possibly zeros or garbage behind the cut.  Recovery reads it with journal.Reader in
   tolerant mode (Store/CrashBytes.v: recover_bytes = C12's reader model jread false ck, driven like
   recoverJournal, then the record's own decoder; records that do not decode are skipped).  Composed with C12
   (Codec/JournalCutProofs.v: truncation_exact, prefix_complete; Codec/JournalProofs.v: reader_factor,
   jwrite_layout and the block-parser lemmas), for every checksum function crc and every constant record with
   jparams_ok:                                                                                             *)

(* Cut at any byte offset n, nothing behind the cut — unconditional.  Recovery keeps exactly firstn m recs where
   m is the number of records whose stream lies wholly within the first n bytes: the m-th record does, and
   every k whose stream does is <= m — in particular every synced record is kept (k <= m for a sync point
   after k records) — and m <= length recs: one of the images the record-level model quantifies over. *)
Theorem C04_byte_cut_is_record_image : forall crc p, jparams_ok p ->
  forall (A : Type) (enc : A -> bytes) (dec : bytes -> option A) ck fl recs n,
  dec_ok A enc dec recs ->
  exists m, (m <= length recs)%nat /\
    recover_bytes crc p A dec ck (crash_bytes crc p A enc fl recs n []) = firstn m recs /\
    (synced_len crc p A enc fl recs m <= n)%nat /\
    forall k, (synced_len crc p A enc fl recs k <= n)%nat -> (Nat.min k (length recs) <= m)%nat.
Proof. exact byte_cut_is_record_image. Qed.
Print Assumptions C04_byte_cut_is_record_image.

(* Cut at any byte offset n followed by ANY bytes (zeros, garbage, stale blocks), under the computable
   hypothesis no_forgery_tail: the block parser accepts, anywhere in the image, only a leading run of the
   chunks that were written, and nothing after the first region it rejects.  (A cut inside a chunk's payload
   followed by zeros is a chunk with an intact header and a changed payload: that its 32-bit checksum does not
   match cannot be proved for an arbitrary checksum function, so zeros need the hypothesis too.) *)
Theorem C04_byte_image_is_record_image : forall crc p, jparams_ok p ->
  forall (A : Type) (enc : A -> bytes) (dec : bytes -> option A) ck fl recs n tail,
  dec_ok A enc dec recs ->
  no_forgery_tail crc p ck (map enc recs) (crash_bytes crc p A enc fl recs n tail) = true ->
  exists m, (m <= length recs)%nat /\
    recover_bytes crc p A dec ck (crash_bytes crc p A enc fl recs n tail) = firstn m recs /\
    forall k, (synced_len crc p A enc fl recs k <= n)%nat -> (Nat.min k (length recs) <= m)%nat.
Proof. exact byte_image_is_record_image. Qed.
Print Assumptions C04_byte_image_is_record_image.

(* Where a Sync can happen: when the writer model has written k records and flushed after the k-th (fl[k-1];
   writeJournal / flushManifest call Sync right after Flush), the bytes that have reached the file are exactly
   the stream of the first k records — the synced_len used above — and the remaining records are written from
   that state on. *)
Theorem C04_sync_point_bytes : forall crc p, jparams_ok p -> forall fl (rs : list bytes) k,
  (1 <= k <= length rs)%nat -> nth (k - 1) fl false = true ->
  exists s, wRecords crc p (w_init p) fl (firstn k rs) = WOk s /\
            w_out s = jwrite crc p fl (firstn k rs) /\
            wRecords crc p (w_init p) fl rs = wRecords crc p s (skipn k fl) (skipn k rs).
Proof. exact sync_point_bytes. Qed.
Print Assumptions C04_sync_point_bytes.

(* the hypothesis is a theorem for pure cuts *)
Theorem C04_no_forgery_tail_cut : forall crc p, jparams_ok p -> forall ck fl rs n,
  no_forgery_tail crc p ck rs (firstn n (jwrite crc p fl rs) ++ []) = true.
Proof. exact no_forgery_tail_cut. Qed.
Print Assumptions C04_no_forgery_tail_cut.

(* Hence every byte-level image of a reachable state (live journal, frozen journal — which may have vanished
   if never synced — and manifest, each cut anywhere behind its synced bytes with anything behind the cut) is,
   once read, a record-level image ... *)
Theorem C04_byte_image_is_image : forall crc p, jparams_ok p ->
  forall enc_batch dec_batch enc_edit dec_edit ck s b,
  pinv s -> codecs_ok enc_batch dec_batch enc_edit dec_edit s ->
  is_byte_image crc p enc_batch enc_edit ck s b ->
  is_image s (abs_image crc p dec_batch dec_edit ck s b).
Proof. exact byte_image_is_image. Qed.
Print Assumptions C04_byte_image_is_image.

(* ... and crash_safe holds with the files given as bytes.
   ASSUMED about the manifest: its records are applied whole or not at all, as recover_bytes does (read the
   record completely, then decode).  session.recover did not do that on the pinned tree: it decoded a record
   while streaming its chunks into the one sessionRecord it reuses, so when a record was split over a 32 KiB
   block boundary and the crash kept the first chunk only, the journal / next-file / sequence numbers decoded
   from that chunk stayed in effect although the record was "skipped" — acknowledged synced writes were lost
   (found while writing this theorem; repaired in the repo by "fix: session.recover must read a manifest
   record completely before decoding it"; the directed scenario harness/cmd/c04/mantorn.go is the oracle).
   With the repair the assumption is what the code does for every torn record. *)
Theorem C04_crash_safe_bytes : forall crc p, jparams_ok p ->
  forall enc_batch dec_batch enc_edit dec_edit ck ops b,
  codecs_ok enc_batch dec_batch enc_edit dec_edit (prun ops) ->
  is_byte_image crc p enc_batch enc_edit ck (prun ops) b ->
  let r := recover_image_bytes crc p dec_batch dec_edit ck (prun ops) b in
  (forall x, In x (p_acked (prun ops)) -> In x r) /\
  (forall x, In x r -> In x (p_issued (prun ops))) /\
  sorted_b r.
Proof. exact crash_safe_bytes. Qed.
Print Assumptions C04_crash_safe_bytes.

(* Non-vacuity, by computation with the real CRC-32C, the real header size and chunk type codes and 32-byte
   blocks: three batches whose streams end at bytes 23, 96 and 117 (the second one spans three blocks), the
   first one synced.  Cut at byte 45 (inside the middle chunk of the second batch): the first batch is kept;
   the same cut followed by zeros, and by garbage: the hypothesis holds and the result is the same; cut at
   116: two batches; at 117: all three. *)
Definition ex_batches : list batch := [{| b_seq := 1; b_n := 2 |}; {| b_seq := 3; b_n := 20 |}; {| b_seq := 23; b_n := 1 |}].
Definition ex_dec := dec_batch_go ldb_batchHeaderLen.
Example C04_bytes_nonvacuous :
  jparams_ok jp_small /\ dec_ok batch enc_batch_dels ex_dec ex_batches /\
  synced_len jcrc jp_small batch enc_batch_dels [] ex_batches 1 = 23%nat /\
  length (jbytes jcrc jp_small batch enc_batch_dels [] ex_batches) = 117%nat /\
  recover_bytes jcrc jp_small batch ex_dec true (crash_bytes jcrc jp_small batch enc_batch_dels [] ex_batches 45 []) = firstn 1 ex_batches /\
  (let d := crash_bytes jcrc jp_small batch enc_batch_dels [] ex_batches 45 (repeat 0 80) in
   no_forgery_tail jcrc jp_small true (map enc_batch_dels ex_batches) d = true /\
   recover_bytes jcrc jp_small batch ex_dec true d = firstn 1 ex_batches) /\
  (let d := crash_bytes jcrc jp_small batch enc_batch_dels [] ex_batches 45 [7; 200; 13; 0; 9; 1; 2; 77; 78; 79; 80; 81; 1; 0; 0; 0; 0; 3; 0; 2] in
   no_forgery_tail jcrc jp_small true (map enc_batch_dels ex_batches) d = true /\
   recover_bytes jcrc jp_small batch ex_dec true d = firstn 1 ex_batches) /\
  recover_bytes jcrc jp_small batch ex_dec true (crash_bytes jcrc jp_small batch enc_batch_dels [] ex_batches 116 []) = firstn 2 ex_batches /\
  recover_bytes jcrc jp_small batch ex_dec true (crash_bytes jcrc jp_small batch enc_batch_dels [] ex_batches 117 []) = ex_batches /\
  (* a cut 3 bytes behind a block boundary, inside the header of a continuation chunk *)
  recover_bytes jcrc jp_small batch ex_dec true (crash_bytes jcrc jp_small batch enc_batch_dels [] ex_batches 35 []) = firstn 1 ex_batches.
Proof.
  split; [exact jp_small_ok|]. split; [repeat constructor|].
  vm_compute. repeat split; reflexivity.
Qed.

(* Non-vacuity of C04_crash_safe_bytes: a reachable state (one synced batch, one unsynced batch; the initial
   manifest edit), a toy edit codec, and a byte-level image of it — the live journal cut 10 bytes into the
   unsynced batch's chunk and followed by zeros, the manifest whole.  All hypotheses hold by computation;
   recovery keeps the synced batch. *)
Fixpoint ex_pairs (l : bytes) : list batch :=
  match l with
  | a :: b :: r => {| b_seq := a; b_n := b |} :: ex_pairs r
  | _ => []
  end.
Definition ex_enc_edit (e : medit) : bytes :=
  [match m_jnum e with Some j => j + 1 | None => 0 end; match m_seq e with Some q => q + 1 | None => 0 end]
  ++ flat_map (fun b => [b_seq b; b_n b]) (m_tab e).
Definition ex_dec_edit (r : bytes) : option medit :=
  match r with
  | j :: q :: t => Some {| m_jnum := if j =? 0 then None else Some (j - 1);
                           m_seq := if q =? 0 then None else Some (q - 1); m_tab := ex_pairs t |}
  | _ => None
  end.
Definition ex_state : pstate := prun [PWrite 2 true; PWrite 1 false].
Definition ex_bimage : bimage :=
  {| bi_live := crash_bytes jcrc jp_small batch enc_batch_dels [] (j_recs (p_live ex_state)) 33 (repeat 0 12);
     bi_frozen := None;
     bi_man := crash_bytes jcrc jp_small medit ex_enc_edit [] (p_man ex_state) 9 [] |}.
Example C04_crash_safe_bytes_nonvacuous :
  codecs_ok enc_batch_dels ex_dec ex_enc_edit ex_dec_edit ex_state /\
  is_byte_image jcrc jp_small enc_batch_dels ex_enc_edit true ex_state ex_bimage /\
  p_acked ex_state = [{| b_seq := 1; b_n := 2 |}] /\
  recover_image_bytes jcrc jp_small ex_dec ex_dec_edit true ex_state ex_bimage = [{| b_seq := 1; b_n := 2 |}].
Proof.
  split; [|split; [|split; vm_compute; reflexivity]].
  - split; intros x Hx; vm_compute in Hx; repeat (destruct Hx as [<-|Hx]; [vm_compute; reflexivity|]); contradiction.
  - unfold is_byte_image. split; [|split].
    + exists [], 33%nat, (repeat 0 12). split; [vm_compute; repeat constructor|]. split; [reflexivity|]. vm_compute. reflexivity.
    + vm_compute. exact I.
    + exists [], 9%nat, []. split; [vm_compute; repeat constructor|]. split; [reflexivity|]. vm_compute. reflexivity.
Qed.

(* The manifest record codec.  Codec/SessionRecord.v models leveldb/session_record.go (sessionRecord, its
   setters and resets, encode, decode with binary.ReadUvarint byte for byte) and the replay half of
   session.recover (leveldb/session.go) with versionStaging (leveldb/version.go).  The tag numbers are the
   generated constants (Gen/InstRecord.v: rp, side condition rp_ok re-proved on every run); the theorems hold
   for every tag assignment with rparams_ok.  Go int / int64 are 64 bits.  The decoder is the REPAIRED one
   (repo commit "fix: sessionRecord.decode must validate lengths and levels read from the manifest"); the pinned
   one is decode_old, kept for C04_record_decode_total_refuted.                                                *)
From GL Require Import Codec.SessionRecord Codec.SessionRecordSpec Codec.SessionRecordProofs
  Codec.SessionRecordCutProofs Codec.SessionRecordBuildProofs Store.ManifestReplayProofs Gen.InstRecordOk.

(* decode . encode = id.  For EVERY record whose written fields are in range — comparer name and keys any byte
   strings (a Go length: below 2^64), journal / next-file numbers, table numbers and sizes int64s in [0, 2^63)
   (encode panics below 0: putVarint), levels ints in [0, 2^63), the sequence number any uint64 — whatever its
   hasRec bits and its other fields are: encode does not panic, and decoding its bytes into ANY record state r0
   (session.recover reuses one record) stores exactly the written fields into r0, in encode's order: comparer,
   journal-num, next-file-num, seq-num when their bits are set, every compaction pointer, every deleted table,
   every added table.  The previous journal number is never written (encode has no case for it): a record with
   that bit set does not read back with it. *)
Theorem C04_record_roundtrip : forall p, rparams_ok p -> forall r, rec_ok p r ->
  exists b, encode p r = Some b /\ forall r0, decode p r0 b = DOk (apply_items p r0 (items_of p r)).
Proof. exact record_roundtrip. Qed.
Print Assumptions C04_record_roundtrip.

(* the same for the records the setters build from field values (every combination of the four written scalar
   fields, any three lists): the decoded record IS the encoded one *)
Theorem C04_record_roundtrip_built : forall p, rparams_ok p -> forall f, fields_ok f ->
  exists b, encode p (build p f) = Some b /\ decode p sr_empty b = DOk (build p f).
Proof. exact build_roundtrip. Qed.
Print Assumptions C04_record_roundtrip_built.

(* On ARBITRARY bytes, from any record state: decode returns a record or an ErrCorrupted naming a field and
   one of "short read" / varint overflow / "invalid negative value" / "invalid level".  It never panics, never
   returns a bare io.EOF, and len+1 rounds of its loop always suffice (every round consumes a byte). *)
Theorem C04_record_decode_total : forall p r b,
  match decode p r b with
  | DOk _ => True
  | DErr e _ => exists f why, e = ECorrupt f why
  | DPanic | DFuel => False
  end.
Proof. exact decode_total. Qed.
Print Assumptions C04_record_decode_total.

(* ... and nothing is taken from an unchecked length: a byte string a reader returns (the only allocation,
   make([]byte, n)) together with what is left is never longer than what the reader was given; a level it
   returns is a non-negative int (it is used as a slice index by versionStaging and setCompPtr), a number a
   non-negative int64. *)
Theorem C04_record_readers_bounded :
  (forall f buf x rest, read_bytes f buf = ROk x rest -> (length x + length rest <= length buf)%nat) /\
  (forall f buf l rest, read_level f buf = ROk l rest -> (0 <= l)%Z) /\
  (forall f buf z rest, read_varint f buf = ROk z rest -> (0 <= z)%Z).
Proof. exact (conj read_bytes_bounded (conj read_level_range read_varint_range)). Qed.
Print Assumptions C04_record_readers_bounded.

(* The statement is FALSE for the pinned decoder (readBytes: make([]byte, n) before looking at what is left,
   io.EOF of io.ReadFull not converted; readLevel: int(x) unchecked).  Witnesses, each reproduced on the real
   code through leveldb.Open on a storage holding a MANIFEST with this record (harness/cmd/c04/krecord.go keeps
   them as directed cases for the repaired tree):
   - 01 ff ff ff ff ff ff ff ff 7f   comparer length 2^63-1: panic "makeslice: len out of range";
   - 01 05                           a length followed by nothing: the bare io.EOF, not an ErrCorrupted — Open
                                     fails with "EOF" even without StrictManifest;
   - 06 80..80 01 07                 deleted table at level 2^63: decodes to level -2^63, versionStaging.commit
                                     panics "index out of range [-9223372036854775808]";
   - 05 ff..ff 01 00                 compaction pointer at level 2^64-1: decodes to level -1, setCompPtr panics.
   The repaired decoder reports all four as corrupted. *)
Definition ex_huge_len : bytes := [1; 255; 255; 255; 255; 255; 255; 255; 255; 127].
Definition ex_len_then_eof : bytes := [1; 5].
Definition ex_del_level_2_63 : bytes := [6; 128; 128; 128; 128; 128; 128; 128; 128; 128; 1; 7].
Definition ex_cp_level_minus1 : bytes := [5; 255; 255; 255; 255; 255; 255; 255; 255; 255; 1; 0].
Theorem C04_record_decode_total_refuted :
  decode_old rp go_max_alloc sr_empty ex_huge_len = DPanic /\
  decode_old rp go_max_alloc sr_empty ex_len_then_eof = DErr EEOF sr_empty /\
  (exists r, decode_old rp go_max_alloc sr_empty ex_del_level_2_63 = DOk r /\ commit [] [] r = PPanic) /\
  (exists r, decode_old rp go_max_alloc sr_empty ex_cp_level_minus1 = DOk r /\ pfold set_comp_ptr (sr_cps r) [] = PPanic) /\
  decode rp sr_empty ex_huge_len = DErr (ECorrupt FComparer RShort) sr_empty /\
  decode rp sr_empty ex_len_then_eof = DErr (ECorrupt FComparer RShort) sr_empty /\
  decode rp sr_empty ex_del_level_2_63 = DErr (ECorrupt FDelLevel RLevel) sr_empty /\
  decode rp sr_empty ex_cp_level_minus1 = DErr (ECorrupt FCpLevel RLevel) sr_empty.
Proof.
  split; [vm_compute; reflexivity|]. split; [vm_compute; reflexivity|].
  split; [eexists; split; vm_compute; reflexivity|]. split; [eexists; split; vm_compute; reflexivity|].
  repeat split; vm_compute; reflexivity.
Qed.
Print Assumptions C04_record_decode_total_refuted.

(* A strict prefix of a valid encoding (what a torn record is when it is handed to decode).  With the fields of
   the record as encode writes them (items_of), cut_items says which of them lie wholly within the first n
   bytes and whether the cut falls exactly between two fields: then decode SUCCEEDS with those fields — a
   shorter record, not an error, because the encoding carries no field count or end mark — and otherwise it is
   a corrupted "short read" (never overflow / negative / level) at a field of the cut item, the fields before it
   already stored in the record.  In both cases the stored fields are a prefix of the record's.  (On the pinned
   decoder a cut right after a key length was the bare io.EOF: C04_record_decode_total_refuted.)  This is why
   session.recover must not decode a torn record at all: a clean cut behind journal-num / seq-num and before the
   added table would be applied as a valid edit — the repair 061d458 reads the record completely first and
   skips it when the journal reader reports it torn. *)
Theorem C04_record_prefix : forall p, rparams_ok p -> forall r b, rec_ok p r -> encode p r = Some b ->
  forall r0 n,
  match cut_items p (items_of p r) n with
  | (a, true) => decode p r0 (firstn n b) = DOk (apply_items p r0 a)
  | (a, false) => exists fld, decode p r0 (firstn n b) = DErr (ECorrupt fld RShort) (apply_items p r0 a)
  end.
Proof. exact record_prefix. Qed.
Print Assumptions C04_record_prefix.

(* Decoding into the record session.recover reuses = decoding into a fresh record and laying the result over
   the reused one (carry: bits or-ed, a scalar field replaced when its bit is set in the fresh record, the lists
   appended); an error is the same error at the same field.  For arbitrary bytes. *)
Theorem C04_record_decode_reused : forall p, rparams_ok p -> forall r0 b,
  match decode p sr_empty b with
  | DOk r => decode p r0 b = DOk (carry p r0 r)
  | DErr e r => decode p r0 b = DErr e (carry p r0 r)
  | _ => True
  end.
Proof. exact decode_carry. Qed.
Print Assumptions C04_record_decode_reused.

(* Replaying a manifest.  For EVERY list of records each of which decodes (on its own, to rs), strict or not,
   the model of session.recover — one reused record whose lists are reset after every record, per-level scratch
   maps (getScratch / commit: deletions of a record before its additions), setCompPtr, then the checks
   "comparer missing / mismatch, next-file-num / journal-file-num / seq-num missing" in that order — agrees
   with replay_result: the same failure, or the journal / previous-journal / next-file / sequence numbers set
   LAST by any record, for every level exactly the tables of live_of rs at that level (a deletion removes
   (level, number), an addition replaces (level, number)), for every level the compaction pointer set last.
   The order of the tables inside a level (sortByNum / sortByKey) is C06's finish_level, not modelled here. *)
Theorem C04_manifest_replay : forall p, rparams_ok p -> forall strict cmp recs rs,
  Forall2 (fun b r => decode p sr_empty b = DOk r) recs rs ->
  agrees (session_recover p strict cmp recs) (replay_result p cmp rs).
Proof. exact manifest_replay. Qed.
Print Assumptions C04_manifest_replay.

(* ... and the numbers are those of the record-level model: when the replay succeeds, Store/Crash.v's replay_man
   over the edits the records denote (medit_of: journal number, sequence number, and for every added table the
   batches it newly makes durable — newb is that ghost labelling) yields the same journal and sequence numbers,
   and the batches of all tables ever added, in order. *)
Theorem C04_manifest_replay_is_replay_man : forall p newb cmp rs j pj nf q live cps,
  replay_result p cmp rs = SpecOk j pj nf q live cps ->
  replay_man (map (medit_of p newb) rs) 0 0 [] = (Z.to_N j, q, flat_map newb (flat_map sr_adds rs)).
Proof. exact manifest_replay_abs. Qed.
Print Assumptions C04_manifest_replay_is_replay_man.

(* What is NOT excluded (known finding manifest-huge-level): a level up to 2^63-1 is accepted, and
   versionStaging.getScratch then holds level+1 scratch slots (make([]tablesScratch, level+1)) — a damaged level
   of 2^40 asks for 16 TiB. *)
Theorem C04_replay_allocates_by_level : forall levels level lv,
  grow_levels levels level = POk lv -> (Z.to_nat level < length lv)%nat.
Proof.
  intros levels level lv H. unfold grow_levels in H. destruct (level <? 0)%Z; [discriminate|].
  injection H as <-. apply grown_length.
Qed.
Print Assumptions C04_replay_allocates_by_level.

(* The abstract edit codec of C04_crash_safe_bytes, instantiated.  enc_medit writes an edit of Store/Crash.v as
   the manifest record the setters build for it (journal number and sequence number when the edit sets them,
   one added level-0 table per batch, named by the batch: file number = first sequence number, size = record
   count) with sessionRecord.encode; dec_medit is sessionRecord.decode into a fresh record followed by the
   abstraction medit_of.  The contract dec (enc e) = Some e holds for every edit whose numbers fit the Go
   types: *)
Theorem C04_edit_codec_roundtrip : forall p, rparams_ok p -> forall e, medit_ok e ->
  dec_medit p (enc_medit p e) = Some e.
Proof. exact medit_roundtrip. Qed.
Print Assumptions C04_edit_codec_roundtrip.

Theorem C04_edit_codec_ok : forall p, rparams_ok p -> forall enc_batch dec_batch s,
  (forall b, In b (p_issued s) -> dec_batch (enc_batch b) = Some b) ->
  Forall medit_ok (p_man s) ->
  codecs_ok enc_batch dec_batch (enc_medit p) (dec_medit p) s.
Proof. exact codecs_ok_medit. Qed.
Print Assumptions C04_edit_codec_ok.

(* C04_crash_safe_bytes with the manifest given as the bytes of real manifest records: no abstract pair for the
   edits any more (the batch codec stays a pair with its contract: Codec/Batch.v is C01's). *)
Theorem C04_crash_safe_bytes_concrete : forall crc jp, jparams_ok jp ->
  forall enc_batch dec_batch ck ops b,
  (forall x, In x (p_issued (prun ops)) -> dec_batch (enc_batch x) = Some x) ->
  Forall medit_ok (p_man (prun ops)) ->
  is_byte_image crc jp enc_batch (enc_medit rp) ck (prun ops) b ->
  let r := recover_image_bytes crc jp dec_batch (dec_medit rp) ck (prun ops) b in
  (forall x, In x (p_acked (prun ops)) -> In x r) /\
  (forall x, In x r -> In x (p_issued (prun ops))) /\
  sorted_b r.
Proof. exact (crash_safe_bytes_concrete rp rp_ok). Qed.
Print Assumptions C04_crash_safe_bytes_concrete.

From Coq Require Import Lia.
(* Non-vacuity, by computation with the generated tag numbers. *)
(* a record with every written field, boundary numbers and an empty key *)
Definition ex_fields : rfields :=
  mkrf (Some [108; 101; 118]) (Some 9223372036854775807%Z) (Some 128%Z) (Some 18446744073709551615)
       [mkcp 1%Z [1; 2; 3; 4; 5; 6; 7; 8; 9]]
       [mkdt 0%Z 127%Z; mkdt 9223372036854775807%Z 4294967296%Z]
       [mkat 2%Z 2147483648%Z 0%Z [] [97; 1; 0; 0; 0; 0; 0; 0; 0]].
Example C04_record_nonvacuous :
  rparams_ok rp /\ fields_ok ex_fields /\
  (exists b, encode rp (build rp ex_fields) = Some b /\ length b = 78%nat /\
             decode rp sr_empty b = DOk (build rp ex_fields) /\
             (* cut between two fields: a shorter record; cut inside the added table: short read *)
             decode rp sr_empty (firstn 5 b) = DOk (build rp (mkrf (Some [108; 101; 118]) None None None [] [] [])) /\
             decode rp sr_empty (firstn 77 b) =
               DErr (ECorrupt FAddImax RShort)
                    (build rp (mkrf (f_comparer ex_fields) (f_journal ex_fields) (f_nextfile ex_fields) (f_seq ex_fields)
                                    (f_cps ex_fields) (f_dels ex_fields) []))) /\
  (* a negative number makes encode panic *)
  encode rp (build rp (mkrf None (Some (-1)%Z) None None [] [] [])) = None /\
  (* an unknown tag is skipped: 08 03 05 reads as next-file-num 5 *)
  decode rp sr_empty [8; 3; 5] = DOk (build rp (mkrf None None (Some 5%Z) None [] [] [])).
Proof.
  split; [exact rp_ok|]. split.
  - unfold fields_ok, items_of_fields, ex_fields.
    cbn [oitem map app f_comparer f_journal f_nextfile f_seq f_cps f_dels f_adds].
    repeat (constructor; [cbn [item_ok cp_level cp_ikey dt_level dt_num at_level at_num at_size at_imin at_imax];
                          unfold z_in63, len_ok, sr_two63, sr_two64, lenN; cbn [length]; repeat split; lia|]).
    constructor.
  - split; [|split; vm_compute; reflexivity].
    eexists. split; [vm_compute; reflexivity|]. repeat split; vm_compute; reflexivity.
Qed.

(* three manifest records as goleveldb writes them: the snapshot record of a new manifest, a flush (journal,
   sequence number, one level-0 table), a compaction (two tables deleted, one added, a compaction pointer) *)
Definition ex_man : list bytes :=
  [ [1; 1; 99; 2; 2; 3; 5; 4; 0];
    [2; 6; 3; 7; 4; 20; 7; 0; 5; 100; 1; 97; 1; 98; 7; 0; 4; 90; 1; 99; 1; 100];
    [3; 9; 5; 0; 2; 65; 66; 6; 0; 5; 6; 0; 4; 7; 1; 8; 150; 1; 1; 97; 1; 100] ].
Example C04_manifest_replay_nonvacuous :
  (exists rs, Forall2 (fun b r => decode rp sr_empty b = DOk r) ex_man rs /\
              replay_result rp [99] rs =
                SpecOk 6 0 9 20 [mkat 1 8 150 [97] [100]] [mkcp 0 [65; 66]]) /\
  session_recover rp true [99] ex_man =
    RecOk (mkss 6 0 9 20 [Some [65; 66]] [[]; [mkat 1 8 150 [97] [100]]]) /\
  (* the comparer check *)
  session_recover rp true [100] ex_man = RecFail RFComparerMismatch /\
  (* a manifest whose records never set next-file-num *)
  session_recover rp true [99] [[1; 1; 99; 2; 2; 4; 0]] = RecFail RFNoNextFile /\
  (* a record that is damaged behind its journal number: refused when strict; skipped otherwise — but its journal
     number stays in effect (observation: same class as the torn records of 061d458, for damage that passes the
     journal checksum) *)
  session_recover rp true [99] [[1; 1; 99; 2; 2; 3; 5; 4; 0]; [2; 9; 7]] = RecFail (RFDecode (ECorrupt FAddLevel RShort)) /\
  session_recover rp false [99] [[1; 1; 99; 2; 2; 3; 5; 4; 0]; [2; 9; 7]] = RecOk (mkss 9 0 5 0 [] []).
Proof.
  split.
  - eexists. split; [repeat constructor; vm_compute; reflexivity|]. vm_compute. reflexivity.
  - repeat split; vm_compute; reflexivity.
Qed.

(* the concrete edit codec on a reachable state: flush edit, transaction edit, compaction edit; all hypotheses of
   C04_crash_safe_bytes_concrete about the manifest hold, and the manifest, written with the real CRC-32C in
   32-byte blocks and cut inside its last record, recovers to the edits before the cut *)
Definition ex_ops_man : list pop :=
  [PWrite 2 true; PRotate; PWrite 3 true; PFlushEdit; PManSync; PDropFrozen; PCompactEdit; PRotate; PFlushEdit;
   PManSync; PDropFrozen; PTxnCommit 4].
Example C04_edit_codec_nonvacuous :
  let s := prun ex_ops_man in
  length (p_man s) = 5%nat /\ forallb (fun e => match dec_medit rp (enc_medit rp e) with Some e' => true | None => false end) (p_man s) = true /\
  map (dec_medit rp) (map (enc_medit rp) (p_man s)) = map Some (p_man s) /\
  recover_bytes jcrc jp_small medit (dec_medit rp) true
    (crash_bytes jcrc jp_small medit (enc_medit rp) [] (p_man s)
       (length (jbytes jcrc jp_small medit (enc_medit rp) [] (p_man s)) - 3) []) = firstn 4 (p_man s).
Proof. vm_compute. repeat split; reflexivity. Qed.
Example C04_edit_codec_hyp_nonvacuous : Forall medit_ok (p_man (prun ex_ops_man)).
Proof.
  assert (E : p_man (prun ex_ops_man) =
              [{| m_jnum := Some 1; m_seq := Some 0; m_tab := [] |};
               {| m_jnum := Some 2; m_seq := Some 2; m_tab := [{| b_seq := 1; b_n := 2 |}] |};
               {| m_jnum := None; m_seq := None; m_tab := [] |};
               {| m_jnum := Some 3; m_seq := Some 5; m_tab := [{| b_seq := 3; b_n := 3 |}] |};
               {| m_jnum := None; m_seq := Some 9; m_tab := [{| b_seq := 6; b_n := 4 |}] |}]) by (vm_compute; reflexivity).
  rewrite E. unfold medit_ok, sr_two63, sr_two64.
  repeat (constructor; [cbn [m_jnum m_seq m_tab b_seq b_n]; repeat split; intros;
                        repeat match goal with H : Some _ = Some _ |- _ => injection H as <- | H : None = Some _ |- _ => discriminate end;
                        try lia; repeat (constructor; [cbn [b_seq b_n]; lia|]); try constructor|]).
  constructor.
Qed.

(* Open as a whole.  Store/OpenPath.v open_bytes is leveldb.Open (db.go openDB / recoverJournal / recoverJournalRO,
   session.go recover / commit, session_util.go newManifest / flushManifest / fillRecord, db_util.go
   checkAndCleanFiles) as ONE function on a storage image given as bytes — the meta pointer and every manifest,
   journal and table file — built by calling the models of the layers: the journal reader (C12), the manifest
   record codec and session.recover's replay (above), recoverJournal's choice and the janitor (C07, Store/Sweep.v),
   decodeBatchToMem (C01, Codec/Batch.v), the memdb (C14), the table writer (C13) for the flushes of the recovery,
   the byte-level DB state of Lsm/ReadPath.v as the result.  Errors are explicit where the Go code returns them
   (strict / non-strict flags are options).  Tied to the code on every run by the KOpenBytes correspondence: real
   crash images, every file as bytes, through the real Open.

   Vocabulary of the statements below (Store/OpenPathProofs.v, Store/OpenCrashProofs.v):
     image_ok o img m mrecs ks js     img is a byte-level crash image: the meta pointer names manifest m, whose file is
                                      what a crash can leave (is_crash_bytes: cut anywhere behind the synced bytes,
                                      anything behind the cut under no_forgery_tail) of the journal framing of the
                                      records mrecs, ks of them synced, each given with bytes that decode to it; the
                                      journal files are js (ascending), each what a crash can leave of the framing of
                                      its batches' records (Codec/Batch.v group_record), with its synced count;
     manifest_ok                      every admissible prefix of the manifest passes session.recover's checks
                                      (true of what goleveldb writes: a manifest starts with a snapshot record);
     denotes newb f s mrecs ks jfz jl the described storage is a storage of the state s of the record-level model
                                      Store/Crash.v: its live / frozen journals hold the batches of jl / jfz, its
                                      manifest the edits the records denote (medit_of with the ghost labelling newb
                                      of tables by the batches they newly make durable), under an order embedding f
                                      of the real file numbers into the model's 1, 2, 3, …;
     accepted bs cur                  what the sequence rule of decodeBatchToMem accepts of bs from the running number cur.
   Proved for images of every state with pinv (every reachable state: C04_invariant_reachable), non-strict flags
   (StrictManifest / StrictJournal make Open fail on a torn tail by design).                                     *)
From GL Require Import Codec.IKey Codec.Table Codec.Batch Lsm.Lsm Lsm.History Lsm.ReadPath Lsm.ReadPathMem
  Lsm.ReadPathProofs Lsm.BatchWriteProofs Store.OpenPath Store.OpenJournalProofs Store.OpenPathProofs
  Store.OpenEndProofs Store.OpenCrashProofs Store.OpenExample.
From GL Require Import Codec.BytesCmp Codec.TblCrc Gen.Inst Gen.InstTbl Gen.InstMem.
From GL Require Mem.MemDB Store.Sweep.

(* READ-ONLY Open (recoverJournalRO) — full.  On every byte-level image of a state s of the record-level model,
   Open succeeds; the record-level image rimg it read is an image of s; recover of rimg is exactly: the batches the
   manifest's tables make durable, then the batches Open kept from the journals, in order, each with its first
   sequence number and count; db.seq is the model's running number; hence every acknowledged batch is kept, only
   issued batches are, in issue order (crash_safe).  The live buffer satisfies C14's invariant and holds exactly the
   stamped records of the kept batches; the version is the manifest prefix's live table set, level by level;
   nothing was written to the storage. *)
Theorem C04_open_ro_refines_recover :
  forall jcrc jp, jparams_ok jp -> forall rp, rparams_ok rp -> forall kp, kparams_ok kp ->
  (keyTypeSeek kp <= keyTypeVal kp)%N -> forall mp, MemDB.mparams_ok mp ->
  forall tp tcrc compress snappy fgen blockSize ri c, comparer_ok c ->
  forall o hts img m mrecs ks jfz jl newb f s,
  oo_strict_man o = false -> oo_strict_j o = false -> oo_ro o = true -> oo_err_exist o = false ->
  heights_okl mp hts ->
  image_ok jcrc jp rp kp o img m mrecs ks (olist jfz ++ [jl]) -> manifest_ok rp o mrecs ks -> no_prev rp mrecs ->
  jnums_ok jfz jl -> order_embedding f -> f 0 = 0 -> pinv s -> denotes rp newb f s mrecs ks jfz jl ->
  exists r rimg k j nf q live cps lv bss d,
    open_bytes jcrc jp rp kp 12 mp tp tcrc compress snappy fgen blockSize ri c o hts img = OOk r /\
    is_image s (image_map f rimg) /\ (ks <= k)%nat /\
    replay_result rp (oo_cmp_name o) (firstn k (map fst mrecs)) = SpecOk j 0%Z nf q live cps /\
    recover_full rimg = (os_seq r, flat_map newb (flat_map SessionRecord.sr_adds (firstn k (map fst mrecs))) ++ map pair_batch (os_kept r)) /\
    recover (image_map f rimg) = recover rimg /\
    (forall b, In b (p_acked s) -> In b (recover rimg)) /\
    (forall b, In b (recover rimg) -> In b (p_issued s)) /\
    sorted_b (recover rimg) /\
    os_seq r = snd (accepted (concat bss) q) /\
    os_kept r = map jb_pair (fst (accepted (concat bss) q)) /\
    (forall b, In b (concat bss) -> In b (jd_bs jl) \/ exists jf, jfz = Some jf /\ In b (jd_bs jf)) /\
    os_bs r = mkBS (Some d) None (levels_of (si_files img) (sort_levels c lv)) /\
    (forall l : nat, nth l lv [] = live_at (Z.of_nat l) live) /\
    mem_ok c kp mp d /\
    (forall x, In x (mem_entries mp (Some d)) <-> In x (flat_map (jb_entries kp) (fst (accepted (concat bss) q)))) /\
    os_image r = img /\ os_removed r = [].
Proof. exact open_ro_refines_recover. Qed.
Print Assumptions C04_open_ro_refines_recover.

(* ... and what that DB ANSWERS.  tables_answer is the statement of C01 / C06 / C13 about the tables the manifest
   prefix names: a well-formed byte-level layout (wf_bstate) that answers like the plain map of the batches those
   tables make durable (flushes and compactions keep that: C01_get_is_map_bytes), read at a sequence number s0 that
   nothing in the tables exceeds and below which every journal batch the sequence rule accepts starts (s0 = the
   recorded number after a flush at run time; one less when a recovery wrote the manifest, which records last + 1).
   Then the state Open returns is well-formed and DB.Get computed on its BYTES (db_get_bytes) at db.seq returns,
   for every key, what the plain map driven by L returns — L a list of batches with acked ⊆ L ⊆ issued, in issue
   order, every batch whole (cmap applies all records of a batch). *)
Theorem C04_open_ro_end_to_end :
  forall jcrc jp, jparams_ok jp -> forall rp, rparams_ok rp -> forall kp, kparams_ok kp ->
  (keyTypeSeek kp <= keyTypeVal kp)%N -> forall mp, MemDB.mparams_ok mp ->
  forall tp tcrc compress snappy fgen blockSize ri c, comparer_ok c ->
  forall decompress fname ufc verify o hts img m mrecs ks jfz jl newb cont f s,
  oo_strict_man o = false -> oo_strict_j o = false -> oo_ro o = true -> oo_err_exist o = false ->
  heights_okl mp hts ->
  image_ok jcrc jp rp kp o img m mrecs ks (olist jfz ++ [jl]) -> manifest_ok rp o mrecs ks -> no_prev rp mrecs ->
  jnums_ok jfz jl -> order_embedding f -> f 0 = 0 -> pinv s -> denotes rp newb f s mrecs ks jfz jl ->
  journal_batches_ok kp cont jfz jl ->
  tables_answer rp kp mp tp tcrc ri c decompress fname ufc verify o img mrecs ks newb cont jfz jl ->
  exists r L,
    open_bytes jcrc jp rp kp 12 mp tp tcrc compress snappy fgen blockSize ri c o hts img = OOk r /\
    wf_bstate c kp mp tp tcrc decompress fname ufc verify ri (os_bs r) /\
    (forall b, In b (p_acked s) -> In b L) /\ (forall b, In b L -> In b (p_issued s)) /\ sorted_b L /\
    os_image r = img /\
    forall key, wf_bytes key ->
      bapi (db_get_bytes c kp mp tp tcrc decompress fname ufc verify (os_bs r) key (os_seq r)) =
      Some (a_get c key (cmap kp c cont [] L)).
Proof. exact open_ro_end_to_end. Qed.
Print Assumptions C04_open_ro_end_to_end.

(* READ-WRITE Open (recoverJournal: flush when the buffer fills, one commit per replayed journal, a new journal and
   a last commit, the janitor) — PARTIAL: the partial-correctness half.  WHENEVER open_bytes returns a DB on such
   an image, the record-level image it read is an image of s and recover of it is: the batches of the manifest's
   tables, then the batches kept (now all flushed into tables: the buffer is empty), with db.seq the model's running
   number; hence acked ⊆ kept ⊆ issued in order.  NOT proved (exercised on every run by KOpenBytes, which compares
   the flushed tables and the new manifest byte for byte with the real ones): that it does return — the table writer
   model accepts the buffer's keys, sessionRecord.encode meets no negative number, the janitor finds every table —
   and the contents of the flushed tables (C13's writer/reader round trip for iComparer + C06_flush_step at byte
   level), hence no read-write counterpart of C04_open_ro_end_to_end. *)
Theorem C04_open_rw_refines_recover_partial :
  forall jcrc jp, jparams_ok jp -> forall rp, rparams_ok rp -> forall kp, kparams_ok kp ->
  (keyTypeSeek kp <= keyTypeVal kp)%N -> forall mp, MemDB.mparams_ok mp ->
  forall tp tcrc compress snappy fgen blockSize ri c, comparer_ok c ->
  forall o hts img m mrecs ks jfz jl newb f s r,
  oo_strict_man o = false -> oo_strict_j o = false -> oo_ro o = false -> oo_err_exist o = false ->
  heights_okl mp hts ->
  image_ok jcrc jp rp kp o img m mrecs ks (olist jfz ++ [jl]) -> manifest_ok rp o mrecs ks -> no_prev rp mrecs ->
  jnums_ok jfz jl -> order_embedding f -> f 0 = 0 -> pinv s -> denotes rp newb f s mrecs ks jfz jl ->
  open_bytes jcrc jp rp kp 12 mp tp tcrc compress snappy fgen blockSize ri c o hts img = OOk r ->
  exists rimg k j nf q live cps d,
    is_image s (image_map f rimg) /\ (ks <= k)%nat /\
    replay_result rp (oo_cmp_name o) (firstn k (map fst mrecs)) = SpecOk j 0%Z nf q live cps /\
    recover_full rimg = (os_seq r, flat_map newb (flat_map SessionRecord.sr_adds (firstn k (map fst mrecs))) ++ map pair_batch (os_kept r)) /\
    (forall b, In b (p_acked s) -> In b (recover rimg)) /\
    (forall b, In b (recover rimg) -> In b (p_issued s)) /\
    sorted_b (recover rimg) /\
    bs_mem (os_bs r) = Some d /\ mem_entries mp (Some d) = [] /\ bs_frozen (os_bs r) = None.
Proof. exact open_rw_refines_recover_partial. Qed.
Print Assumptions C04_open_rw_refines_recover_partial.

(* Idempotence.  Read-only Open writes nothing — on ANY storage image and with any options: the storage afterwards
   is the image, no Remove, no commit — so opening what it left is opening the same image (full).  For read-write
   Open the statement "opening the image a successful Open leaves (new manifest, new journal, flushed tables, the
   janitor's removals) yields the same abstraction" is evaluated on the example below, compared with the real code
   by KOpenBytes on images that are themselves left by recoveries, and checked on the implementation by the
   harness' second-Open oracle on every case; it is not proved in general. *)
Theorem C04_open_ro_leaves_image :
  forall jcrc jp rp kp mp tp tcrc compress snappy fgen blockSize ri c o hts img r,
  oo_ro o = true ->
  open_bytes jcrc jp rp kp 12 mp tp tcrc compress snappy fgen blockSize ri c o hts img = OOk r ->
  os_image r = img /\ os_removed r = [] /\ os_commits r = [] /\ os_journal r = None.
Proof. exact open_ro_leaves_image. Qed.
Print Assumptions C04_open_ro_leaves_image.

Theorem C04_open_ro_idempotent :
  forall jcrc jp rp kp mp tp tcrc compress snappy fgen blockSize ri c o hts img r,
  oo_ro o = true ->
  open_bytes jcrc jp rp kp 12 mp tp tcrc compress snappy fgen blockSize ri c o hts img = OOk r ->
  open_bytes jcrc jp rp kp 12 mp tp tcrc compress snappy fgen blockSize ri c o hts (os_image r) = OOk r.
Proof. exact open_ro_idempotent. Qed.
Print Assumptions C04_open_ro_idempotent.

(* Non-vacuity (Store/OpenExample.v): a storage image built with the model's own writers — real CRC-32C, generated
   constants, 32 KiB blocks — for the state of C04_crash_safe_bytes_nonvacuous (a synced batch Put a, Delete b; an
   unsynced batch Put c): MANIFEST-0 with its snapshot record, journal 1 cut 13 bytes into the second record and
   followed by zeros, no tables.  Every hypothesis of C04_open_ro_end_to_end holds of it (image_ok with
   no_forgery_tail by computation, manifest_ok, denotes under f = identity, tables_answer for the empty version), so
   the theorem applies: *)
Example C04_open_ro_end_to_end_nonvacuous :
  exists r L,
    ox_open (ox_opts true) [] ox_img = OOk r /\
    wf_bstate bytewise kp mp tblp tbl_crc (fun _ => None) None (fun _ _ _ => true) true 16 (os_bs r) /\
    (forall b, In b (p_acked ox_state) -> In b L) /\ (forall b, In b L -> In b (p_issued ox_state)) /\ sorted_b L /\
    os_image r = ox_img /\
    forall key, wf_bytes key ->
      bapi (db_get_bytes bytewise kp mp tblp tbl_crc (fun _ => None) None (fun _ _ _ => true) true (os_bs r) key (os_seq r)) =
      Some (a_get bytewise key (cmap kp bytewise ox_cont [] L)).
Proof. exact ox_end_to_end. Qed.

(* ... read-write Open of the same image, evaluated: db.seq 3, the synced batch (first number 1, two records) kept,
   flushed into table 2, new journal 3, new manifest 4, the old manifest and journal removed; and opening what it
   left: the same sequence number and table, nothing replayed, manifest 4 and journal 3 replaced by 6 and 5, the SAME
   abstraction (Lsm/ReadPath.v abs: buffers and tables as entry lists), which holds the batch's two entries *)
Example C04_open_rw_nonvacuous :
  ox_rw_summary (ox_open (ox_opts false) [] ox_img) =
    Some (3, [(1, 2)], [[2]], Some 3, Some 4, [(Sweep.FManifest, 0); (Sweep.FJournal, 1)]) /\
  image_ok jcrc jp rp kp (ox_opts false) ox_img 0 ox_mrecs 1 (olist None ++ [ox_jl]) /\
  ox_rw_summary ox_r2 = Some (3, [], [[2]], Some 5, Some 6, [(Sweep.FManifest, 4); (Sweep.FJournal, 3)]) /\
  ox_abs ox_r2 = ox_abs ox_r1 /\
  option_map (fun st => length (all_entries st)) (ox_abs ox_r1) = Some 2%nat.
Proof. exact (conj ox_rw_opens (conj ox_image_ok_rw ox_rw_idempotent)). Qed.

(* The real file storage.  open_dir is Open on a directory (name -> content) of leveldb/storage's file storage: the
   meta pointer is what GetMeta answers (Store/FileStorage.v get_meta, the model behind C04_setmeta_crash_atomic in
   Props/C04FS.v), the files are those whose names parse.  Composition with that theorem: while setMeta(B) is in
   progress on a directory settled on A — any prefix of its file-system operations, any loss of unsynced directory
   effects — Open sees the directory's files under the pointer A or under the pointer B, never anything else, so the
   theorems above apply to one of those two abstract images.  (The CURRENT protocol itself, the name codec and the
   locks are C18 / C04FS; the files other than CURRENT* are taken here as the abstract storage's files.) *)
From GL Require Store.FileStorage Store.FileStorageCrashProofs.
Theorem C04_open_dir_setmeta_crash :
  forall jcrc jp rp kp bhl mp tp tcrc compress snappy fgen blockSize ri c o hts s A B K i0 k v,
  FileStorageCrashProofs.clean s A A K i0 -> In (FileStorage.gen_name A) K -> In (FileStorage.gen_name B) K ->
  (FileStorage.fd_num A < FileStorage.fd_num B)%Z ->
  FileStorage.int64_ok (FileStorage.fd_num A) = true -> FileStorage.int64_ok (FileStorage.fd_num B) = true ->
  FileStorage.crash_image (FileStorage.fapply_all s (firstn k (FileStorage.set_meta_ops (FileStorage.vol_view s) B))) v ->
  let ob := open_bytes jcrc jp rp kp bhl mp tp tcrc compress snappy fgen blockSize ri c o hts in
  open_dir jcrc jp rp kp bhl mp tp tcrc compress snappy fgen blockSize ri c o hts v =
    ob (mkSI (Some (Z.to_N (FileStorage.fd_num A))) (dir_files v)) \/
  open_dir jcrc jp rp kp bhl mp tp tcrc compress snappy fgen blockSize ri c o hts v =
    ob (mkSI (Some (Z.to_N (FileStorage.fd_num B))) (dir_files v)).
Proof. exact open_dir_setmeta_crash. Qed.
Print Assumptions C04_open_dir_setmeta_crash.

(* One of the three conditions under which C04_open_rw_refines_recover_partial leaves open that Open returns:
   the recovery's flushes cannot fail.  The
   table writer model's Append refuses a key only when it is not above the previous one, and a buffer that
   satisfies C14's invariant lists its keys in strictly increasing iComparer order — so session.flushMemdb always
   produces a table (open_bytes never returns OEFlush from such a buffer).  The other two are sessionRecord.encode (no
   negative number) and the janitor (every named table is found); see the totality theorem below. *)
From GL Require Import Store.OpenRwProofs.
Theorem C04_open_flush_total :
  forall rp kp, (keyTypeSeek kp <= keyTypeVal kp)%N -> forall mp, MemDB.mparams_ok mp ->
  forall tp tcrc compress snappy fgen blockSize ri c st,
  mem_ok c kp mp (r_mdb st) ->
  exists st', flush_memdb rp kp mp tp tcrc compress snappy fgen blockSize ri c st = OOk st'.
Proof. exact flush_memdb_total. Qed.
Print Assumptions C04_open_flush_total.

(* READ-WRITE Open: TOTALITY (Store/OpenTotalProofs.v).  That Open does return, which
   C04_open_rw_refines_recover_partial leaves to three conditions, follows from one invariant carried through recoverJournal (every flush, every
   commit with its newManifest / flushManifest branch incl. the MaxManifestFileSize rotation, every journal removal,
   newMem, the last commit) down to checkAndCleanFiles.  The side conditions are stated ON THE IMAGE (image_tabs_ok):
     - the storage lists a file name once;
     - for every admissible manifest prefix: the journal number and the next file number it leaves are not negative
       (they are Go int64 read back from varints), and every live table has a non-negative number and size and a file
       in the image (tables are synced before the edit that names them: the assumption of C04_crash_safe, here needed
       as existence only — the CONTENT of those files plays no role in totality).
   From these: sessionRecord.encode never meets a negative number (what the recovery adds are counter values above
   the recorded ones and lengths), versionStaging / setCompPtr never index a negative level (the recovery adds at
   level 0 only; the snapshot record is filled with the version's own level positions), the table writer accepts
   every buffer (C04_open_flush_total), memdb.Reset / New succeed, and the janitor finds every table the final
   version names (nothing in Open removes a table file before the janitor).  No error result of the model —
   OEFlush, OEEncode, OEMissing, OEPanic, OEFuel, the journal / manifest read errors — is reachable. *)
From GL Require Import Store.OpenTotalProofs.
Theorem C04_open_rw_total :
  forall jcrc jp, jparams_ok jp -> forall rp, rparams_ok rp -> forall kp, kparams_ok kp ->
  (keyTypeSeek kp <= keyTypeVal kp)%N -> forall mp, MemDB.mparams_ok mp ->
  forall tp tcrc compress snappy fgen blockSize ri c, comparer_ok c ->
  forall o hts img m mrecs ks jfz jl,
  oo_strict_man o = false -> oo_strict_j o = false -> oo_ro o = false -> oo_err_exist o = false ->
  heights_okl mp hts ->
  image_ok jcrc jp rp kp o img m mrecs ks (olist jfz ++ [jl]) -> manifest_ok rp o mrecs ks -> jnums_ok jfz jl ->
  image_tabs_ok rp o img mrecs ks ->
  exists r, open_bytes jcrc jp rp kp 12 mp tp tcrc compress snappy fgen blockSize ri c o hts img = OOk r.
Proof. exact open_rw_total_pinv. Qed.
Print Assumptions C04_open_rw_total.

(* ... composed with the partial-correctness half: TOTAL correctness of what read-write Open keeps.  On every byte
   image of a pinv state, Open returns r, and r's kept batches / db.seq are the record-level recover of the
   record-level image the bytes denote (acked ⊆ kept ⊆ issued, in order), the buffer is empty.
   Still named _partial, because the full statement also asks for (and this does NOT prove):
     (a) wf_bstate (os_bs r) and the CONTENTS of the level-0 tables the recovery flushes — table_check of each
         flushed file = the stamped records of the batches replayed since the previous flush.  The pieces exist
         (C01_writer_output_ok, C01_flush_step_bytes, C01_memdb_iterator_yields_pairs) but are stated for
         Lsm/WritePath.v's table_bytes / b_flush on a bstate with a frozen buffer, under write_sizes_ok and
         table_filter_ok; recoverJournal flushes db-less (session.flushMemdb straight from the replay buffer, the
         table entering a pending record, not the version, until the journal's commit) through Codec/Table.v twrite,
         so a bridge lemma twrite = table_bytes and a "pending adds" view of the version are needed;
     (b) hence C04_open_rw_end_to_end (db_get_bytes at db.seq = plain map of L) and
     (c) C04_open_rw_idempotent in general (needs (a) plus: the manifest the recovery writes, read back by
         session_recover, yields the same levels — encode/decode round trip C04_record_roundtrip applied to
         new_manifest's snapshot record — and the new journal is empty, so nothing is replayed).
   Both remain evaluated on C04_open_rw_nonvacuous and compared byte for byte with the real Open by KOpenBytes. *)
Theorem C04_open_rw_refines_recover_total_partial :
  forall jcrc jp, jparams_ok jp -> forall rp, rparams_ok rp -> forall kp, kparams_ok kp ->
  (keyTypeSeek kp <= keyTypeVal kp)%N -> forall mp, MemDB.mparams_ok mp ->
  forall tp tcrc compress snappy fgen blockSize ri c, comparer_ok c ->
  forall o hts img m mrecs ks jfz jl newb f s,
  oo_strict_man o = false -> oo_strict_j o = false -> oo_ro o = false -> oo_err_exist o = false ->
  heights_okl mp hts ->
  image_ok jcrc jp rp kp o img m mrecs ks (olist jfz ++ [jl]) -> manifest_ok rp o mrecs ks -> no_prev rp mrecs ->
  jnums_ok jfz jl -> order_embedding f -> f 0 = 0 -> pinv s -> denotes rp newb f s mrecs ks jfz jl ->
  image_tabs_ok rp o img mrecs ks ->
  exists r rimg k j nf q live cps d,
    open_bytes jcrc jp rp kp 12 mp tp tcrc compress snappy fgen blockSize ri c o hts img = OOk r /\
    is_image s (image_map f rimg) /\ (ks <= k)%nat /\
    replay_result rp (oo_cmp_name o) (firstn k (map fst mrecs)) = SpecOk j 0%Z nf q live cps /\
    recover_full rimg = (os_seq r, flat_map newb (flat_map SessionRecord.sr_adds (firstn k (map fst mrecs))) ++ map pair_batch (os_kept r)) /\
    (forall b, In b (p_acked s) -> In b (recover rimg)) /\
    (forall b, In b (recover rimg) -> In b (p_issued s)) /\
    sorted_b (recover rimg) /\
    bs_mem (os_bs r) = Some d /\ mem_entries mp (Some d) = [] /\ bs_frozen (os_bs r) = None.
Proof. exact open_rw_refines_recover_total. Qed.
Print Assumptions C04_open_rw_refines_recover_total_partial.

(* Non-vacuity: the example image of C04_open_rw_nonvacuous satisfies every hypothesis of C04_open_rw_total (image_ok
   there; manifest_ok and image_tabs_ok here), so the theorem applies to it — and the evaluation there shows the DB
   it returns. *)
Example C04_open_rw_total_nonvacuous :
  image_tabs_ok rp (ox_opts false) ox_img ox_mrecs 1 /\ manifest_ok rp (ox_opts false) ox_mrecs 1 /\
  jnums_ok None ox_jl /\
  exists r, ox_open (ox_opts false) [] ox_img = OOk r.
Proof. exact ox_rw_total. Qed.

(* Two steps of item (a) of the list above: the tables the recovery flushes (Store/OpenFlushProofs.v).

   (a1) THE BRIDGE — full.  session.flushMemdb's writer call in the model of Open (Codec/Table.v twrite with
   Store/OpenPath.v's iComparer — Codec/IKey.v isep_bytes / isucc_bytes — and the filter generator handed to Open) IS
   Lsm/WritePath.v's table_bytes (the writer of C01_writer_output_ok / C01_flush_step_bytes, options record wo_of) on
   every list of decodable internal keys, for a user comparer whose Separator / Successor return byte strings
   (cmp_wf).  The hypothesis is needed: the two models of iComparer.Separator differ on a user
   comparer that answers with something that is no []byte (an element above 255) — Lsm/WritePath.v's refuses the
   answer (enc_short), Codec/IKey.v's does not look; in Go a []byte always is one; goleveldb's default comparer
   satisfies it (C04_open_rw_flush_table_ok_nonvacuous). *)
From GL Require Import Store.OpenFlushProofs.
From GL Require Lsm.WritePath Lsm.WritePathTable Codec.TableCheck Base.Cursor.
Theorem C04_open_flush_is_table_bytes :
  forall c kp, cmp_wf c -> forall tp crc compress blockSize ri snappy fgen kvs,
  Forall (fun kv => exists x, ik_dec (fst kv) = Some x) kvs ->
  twrite tp crc compress (OpenPath.iwc kp c) blockSize ri snappy fgen kvs =
  WritePath.table_bytes c kp tp crc compress (wo_of blockSize ri snappy fgen) kvs.
Proof. exact twrite_table_bytes. Qed.
Print Assumptions C04_open_flush_is_table_bytes.

(* (a2), per flush — full for ONE flush of the recovery.  Whenever session.flushMemdb (flush_memdb: from the replay
   buffer straight into the pending session record) runs on a non-empty buffer that satisfies C14's invariant, under
   the side conditions of C01_writer_output_ok for that buffer (flush_side_ok: C13's computable size condition; with
   a filter policy, C16's no-false-negative condition on the file written): the file it stores under the next file
   number is table_bytes of the buffer's pairs; the record it appends to the pending adds is level 0, that number,
   the file's length, first and last key; the table file so recorded (tfile_of, what levels_of builds once the
   journal's commit moves the pending add into the version) passes tfile_okb with those bounds and table_check's to
   EXACTLY the buffer's pairs, which are strictly increasing under iComparer and are the buffer's entries. *)
Theorem C04_open_rw_flush_table_ok :
  forall rp kp, kparams_ok kp -> (keyTypeSeek kp <= keyTypeVal kp)%N -> forall mp, MemDB.mparams_ok mp ->
  forall tp, tparams_ok tp -> forall tcrc, (forall b, tcrc b < 2 ^ 32)%N ->
  forall compress decompress, (forall x, decompress (compress x) = Some x) -> (forall x, compress x <> []) ->
  forall snappy fgen blockSize ri, (1 <= ri)%N -> forall c, comparer_ok c -> cmp_wf c ->
  forall fname ufc verify st st',
  mem_ok c kp mp (r_mdb st) -> mem_pairs mp (r_mdb st) <> [] ->
  flush_side_ok kp tp tcrc compress decompress snappy fgen blockSize ri c fname ufc verify
    (Z.to_N (s_next (c_sess (r_c st)))) (mem_pairs mp (r_mdb st)) ->
  flush_memdb rp kp mp tp tcrc compress snappy fgen blockSize ri c st = OOk st' ->
  let kvs := mem_pairs mp (r_mdb st) in
  let num := s_next (c_sess (r_c st)) in
  exists file,
    WritePath.table_bytes c kp tp tcrc compress (wo_of blockSize ri snappy fgen) kvs = Some file /\
    c_files (r_c st') = f_set (c_files (r_c st)) (Sweep.FTable, Z.to_N num) file /\
    s_next (c_sess (r_c st')) = (num + 1)%Z /\ s_levels (c_sess (r_c st')) = s_levels (c_sess (r_c st)) /\
    r_mdb st' = r_mdb st /\
    let t := SessionRecord.mkat 0%Z num (Z.of_N (Varint.lenN file)) (WritePath.key_first kvs) (WritePath.key_last kvs) in
    SessionRecord.sr_adds (r_rec st') = SessionRecord.sr_adds (r_rec st) ++ [t] /\
    let f := tfile_of (c_files (r_c st')) t in
    f = mkTF (Z.to_N num) (WritePath.key_first kvs) (WritePath.key_last kvs) file /\
    tfile_okb c kp tp tcrc decompress fname ufc verify ri f = true /\
    TableCheck.table_check (ibc c) (tf_reader c tp tcrc decompress fname ufc verify f) ri = Some kvs /\
    Cursor.sorted (ibc c) kvs /\ map entry_of kvs = mem_entries mp (Some (r_mdb st)).
Proof. exact flush_memdb_table_ok. Qed.
Print Assumptions C04_open_rw_flush_table_ok.

(* ... and WHICH records that buffer holds.  One journal record replayed in read-write mode is the read-only step —
   after which the buffer holds what it held plus, when the sequence rule accepts the batch, its stamped records
   (jb_entries) — followed, when the buffer has reached the write buffer size, by flush_memdb of exactly that buffer
   and a Reset that leaves it empty.  The recovery also resets the buffer at the start of every journal; so the buffer
   a flush writes out holds the stamped records of the batches accepted since the previous flush of that journal (or
   its start), and the theorem above says the table holds exactly those, in internal-key order. *)
Theorem C04_open_rw_replay_flush :
  forall rp kp, kparams_ok kp -> (keyTypeSeek kp <= keyTypeVal kp)%N -> forall mp, MemDB.mparams_ok mp ->
  forall tp tcrc compress snappy fgen blockSize ri c, comparer_ok c ->
  forall o j b st st',
  oo_strict_j o = false -> jb_ok kp b -> mem_inv kp mp c st ->
  replay_record rp kp 12 mp tp tcrc compress snappy fgen blockSize ri c o true j (jb_enc kp b) st = OOk st' ->
  exists st1,
    replay_record rp kp 12 mp tp tcrc compress snappy fgen blockSize ri c o false j (jb_enc kp b) st = OOk st1 /\
    mem_inv kp mp c st1 /\ r_c st1 = r_c st /\ r_rec st1 = r_rec st /\
    (if (fst b <? r_seq st)%N then r_mdb st1 = r_mdb st
     else forall x, In x (mem_entries mp (Some (r_mdb st1))) <->
                    In x (mem_entries mp (Some (r_mdb st))) \/ In x (jb_entries kp b)) /\
    (st' = st1 \/
     exists st2, flush_memdb rp kp mp tp tcrc compress snappy fgen blockSize ri c st1 = OOk st2 /\
                 r_c st' = r_c st2 /\ r_rec st' = r_rec st2 /\ mem_entries mp (Some (r_mdb st')) = [] /\
                 mem_inv kp mp c st').
Proof. exact replay_record_rw_decompose. Qed.
Print Assumptions C04_open_rw_replay_flush.

(* Non-vacuity: the hypotheses of C04_open_rw_flush_table_ok hold together — goleveldb's default comparer returns byte
   strings, the CRC instance stays below 2^32, and the replay buffer after the synced batch of the example image
   (Put a, Delete b at sequence numbers 1, 2), flushed as table 0 with the generated constants, the real CRC-32C, 4 KiB
   blocks, restart interval 16, no compression, no filter, satisfies C14's invariant, has two pairs and passes the
   side conditions; flush_memdb returns. *)
Example C04_open_rw_flush_table_ok_nonvacuous :
  cmp_wf bytewise /\ (forall b, tbl_crc b < 2 ^ 32)%N /\
  exists st st',
    mem_ok bytewise kp mp (r_mdb st) /\ length (mem_pairs mp (r_mdb st)) = 2%nat /\
    flush_side_ok kp tblp tbl_crc (fun x => 0%N :: x) (fun x => Some (tl x)) false None 4096 16 bytewise None (fun _ _ _ => true) true
      (Z.to_N (s_next (c_sess (r_c st)))) (mem_pairs mp (r_mdb st)) /\
    flush_memdb rp kp mp tblp tbl_crc (fun x => 0%N :: x) false None 4096 16 bytewise st = OOk st'.
Proof. exact fx_flush_hyps. Qed.

(* Not proved (hence the _partial name of C04_open_rw_refines_recover_total_partial stays):
     (a2/a3) the lifting of the per-flush theorem through rj_loop / open_rw to open_bytes: an invariant "every table of
         the version and every pending add passes tfile_okb, its number is below the next file number" carried through
         every flush (the theorem above; fresh number, so no named table file is overwritten), every commit (the new
         levels hold old tables and pending adds only: Store/OpenTotalProofs.v finish_go_in / pfold_add_total; the
         manifest writes touch no table file), the journal removals and the janitor (which removes no named table);
         it needs (i) a hypothesis on the image that the manifest's tables have numbers below its next-file number
         and pass tfile_okb (tables_answer gives the latter), and (ii) a formulation of flush_side_ok for ALL the
         buffers the recovery flushes that is a hypothesis on the IMAGE (a bound on the journals' sizes implies C13's
         size condition, but that implication is not proved) — then wb_tables of wf_bstate; wb_abs (the L1 layout is
         well-formed: level-0 additions) needs C06's flush step on the "version plus pending adds" view;
     (b) C04_open_rw_end_to_end;  (c) C04_open_rw_idempotent (plus the snapshot record's round trip through
         session_recover). *)
