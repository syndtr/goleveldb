(* Props/C09.v — property C09: no call blocks forever and Close always returns.
   Each theorem is closed by a lemma of Conc/Locks*.v and followed by Print Assumptions; the _refuted Examples
   restate schedules evaluated there, the two non-vacuity Examples (with the runs they use, defined here)
   are evaluated in place.

   The theorems speak about Conc/Locks.v, a hand-written executable model of the BLOCKING SKELETON of
   goleveldb (control flow of every public call and of the background goroutines over the write lock,
   compCommitLk, tr.lk and the channels), derived by reading the Go source and tied to the running code by
   trace inclusion of the lock events (Corr/C09Run.v) and by the watchdog harness (harness/cmd/c09).
   PARTIAL by nature: the Go scheduler and memory model, fairness and wall-clock time are outside the model;
   the model proves ownership discipline, exits of waits and deadlock freedom, the watchdog observes liveness. *)
From GL Require Import Conc.Locks Conc.LocksProofs Conc.LocksDeadlock Conc.LocksInv Conc.LocksInvBg Conc.LocksInvAll
  Conc.LocksClose Conc.LocksLate.

(* 1. locks_balanced.  In every reachable state of the repaired code (any number of clients, any schedule,
      any outcome of the storage operations, Close at any point) what a client holds is a function of where
      it is in its call: the write lock exactly at the program counters [cW], compCommitLk exactly at [cC],
      tr.lk only at [cTl]. *)
Theorem C09_held_is_pc : forall s, reachable fixed s ->
  forall i, holdsW s i = cW (cli s i) /\ holdsC s i = cC (cli s i) /\ (holdsT s i = true -> cTl (cli s i) = true).
Proof. exact held_is_pc. Qed.
Print Assumptions C09_held_is_pc.

(*    Hence a client that is not inside a call holds nothing: every call path that terminates -- whatever
      faults occurred on it -- has given back what it acquired.  OpenTransaction hands the write lock to its
      Transaction (state WTr, given back by Commit / Discard / Close's Discard); Close keeps it for ever on
      behalf of the closed DB (state WClosed). *)
Theorem C09_locks_balanced : forall s, reachable fixed s ->
  forall i, (cli s i = Idle \/ cli s i = IdleTr) -> holdsW s i = false /\ holdsC s i = false /\ holdsT s i = false.
Proof. exact locks_balanced_lts. Qed.
Print Assumptions C09_locks_balanced.

(* 2. every_wait_has_exit.  Every program counter of a client whose outgoing steps can all block is either a
      select that lists closeC, or one of the listed unconditional operations (mutex Lock, the merge
      protocol's replies, Close's own acquisition and closeW.Wait) whose partner is guaranteed by an invariant
      (see Conc/LocksProofs.v, client_unconditional).  Same for the two compaction goroutines. *)
Theorem C09_every_wait_has_exit_clients : forall pc,
  match classify (cedges fixed pc) with
  | WPartner | WFinal => client_unconditional pc = true
  | _ => client_unconditional pc = false
  end.
Proof. exact client_waits. Qed.
Print Assumptions C09_every_wait_has_exit_clients.

Theorem C09_every_wait_has_exit_mcompaction : forall pc,
  match classify (medges pc) with
  | WPartner => m_unconditional pc = true | WFinal => pc = MDone | _ => m_unconditional pc = false end.
Proof. exact m_waits. Qed.
Print Assumptions C09_every_wait_has_exit_mcompaction.

Theorem C09_every_wait_has_exit_tcompaction : forall pc,
  match classify (tedges pc) with
  | WPartner => t_unconditional pc = true | WFinal => pc = TDone | _ => t_unconditional pc = false end.
Proof. exact t_waits. Qed.
Print Assumptions C09_every_wait_has_exit_tcompaction.

(*    Waits for background work also list compErrC; waits for the write lock (Close excepted) also list
      compPerErrC. *)
Theorem C09_error_exits : forall pc,
  let es := cedges fixed pc in
  (has_send_cmd es || is_trigw_pc pc = true -> has_lbl LRecvErr es && has_lbl LSeeClosed es = true) /\
  (has_acq es = true -> has_lbl LRecvPerr es && has_lbl LSeeClosed es = true).
Proof. exact error_exits. Qed.
Print Assumptions C09_error_exits.

(* 3. no_deadlock (FULL for the model).  In every reachable state in which some client is inside a call (or owns
      an open transaction that it has not yet committed or discarded) some step other than a new arrival is
      enabled: no state of the model is a deadlock.  Proof: the lock-ownership invariant inv1 and the protocol
      invariant inv2 (Conc/LocksDeadlock.v: ack tickets, merge protocol, pause protocol, Close, transaction
      ownership) hold in every reachable state -- inv2 is preserved by every step of a client (one lemma per
      label, Conc/LocksInv.v, dispatched in Conc/LocksInvAll.v) and by every step of mCompaction, tCompaction and
      compactionError (Conc/LocksInvBg.v) -- and inv1 /\ inv2 imply progress (Conc/LocksDeadlock.v).
      Outside: that the Go scheduler eventually runs an enabled step (fairness), wall-clock time. *)
Theorem C09_inv2_reachable : forall s, reachable fixed s -> inv2 s.
Proof. exact inv2_reachable. Qed.
Print Assumptions C09_inv2_reachable.

Theorem C09_no_deadlock : forall s, reachable fixed s -> pending s ->
  exists a, is_arrival fixed s a = false /\ exists s', step fixed s a = Some s'.
Proof. exact no_deadlock. Qed.
Print Assumptions C09_no_deadlock.

(*    Non-vacuity: a reachable state with calls in progress -- client 0 is inside a Put and holds the write lock
      (at the merge point), client 1 is inside Close and has closed closeC. *)
Definition c09_pre : list action :=
  [ACli 0 0 0; ACli 0 1 0; ACli 0 0 0; ACli 0 0 0; ACli 1 7 0; ACli 1 0 0; ACli 1 0 0; ACli 1 0 0].
Definition c09_s0 : state := match run fixed init c09_pre with Some s => s | None => init end.
Example C09_no_deadlock_nonvacuous :
  reachable fixed c09_s0 /\ pending c09_s0 /\
  (cli c09_s0 0, cli c09_s0 1, closeC c09_s0, wl c09_s0) = (WM true, CL3, true, WHeld (PCli 0)).
Proof.
  split; [| split].
  - apply (run_reachable c09_pre init); [apply reach_init | vm_compute; reflexivity].
  - exists 0. vm_compute. discriminate.
  - vm_compute. reflexivity.
Qed.

(*    The same with inv2 as a hypothesis: the progress argument itself (inv1, which holds in every reachable
      state, and inv2 give an enabled step). *)
Theorem C09_no_deadlock_partial : forall s, reachable fixed s -> inv2 s -> pending s ->
  exists a, is_arrival fixed s a = false /\ exists s', step fixed s a = Some s'.
Proof. intros s R I2 P. exact (progress s (inv1_reachable s R) I2 P). Qed.
Print Assumptions C09_no_deadlock_partial.

(*    no_lost_wakeup.  While a client waits for the acknowledgement of a compaction command (second select of
      compTriggerWait) the addressed goroutine still holds the acknowledgement channel -- as its current command
      or, for tCompaction, in its wait queue -- and stands at a point from which every path, the exit paths at
      closeC / a persistent error included, sends the acknowledgement (x.ack(err) in the loop, x.ack(ErrClosed)
      and waitQ[i].ack(ErrClosed) in the deferred exit code).  The waiting select itself also lists compErrC and
      closeC (C09_error_exits). *)
Theorem C09_no_lost_wakeup : forall s i, reachable fixed s ->
  (is_trigw BM (cli s i) = true -> mx s = Some (i, ctk s i) /\ mc s <> M0 /\ mc s <> MDone) /\
  (is_trigw BT (cli s i) = true ->
     (tx s = Some (i, ctk s i) /\ tx_none_pc (tc s) = false) \/
     (In (i, ctk s i) (tq s) /\ tc s <> T2 /\ tc s <> TDone)).
Proof. exact ack_registered. Qed.
Print Assumptions C09_no_lost_wakeup.

(* 3b. close_terminates (PARTIAL: the measure-based core).  Full statement (NOT proved, and false for the model
      as for the code without a probabilistic reading of select): from every reachable state in which Close has
      closed closeC, every maximal run without new calls, under weak fairness, returns from Close.  Reason: Go
      picks at random among the ready cases of a select; a run in which a select with a ready closeC case keeps
      taking another ready case (flush's write-delay loop sends its command, tCompaction accepts it, ...) is a
      run of the model and of the code -- of probability 0.
      Proved (Conc/LocksClose.v, Conc/LocksLate.v): call a step GOOD when it is not a new call (no edge out of
      Idle or IdleTr -- so no step at all of the owner of a Transaction handle that is between calls) and the
      goroutine, when it stands at a select that lists closeC, takes the closeC case (compactionError: its
      closeC case).  With
      measure N s = 200 * (sum over the clients below N of their distance to the end of the call) +
      10 * distance of mCompaction to its exit + distance of tCompaction to its exit + length of its wait
      queue + (compactionError still running):
        - every good step of a reachable state with closeC closed strictly decreases the measure;
        - hence every run of good steps has at most [measure] steps;
        - as long as some client is inside a call a good step is enabled.  This rests on repair fb021ae: once
          Close has read db.tr, an open transaction is either the one Close read and discards itself, or one
          whose OpenTransaction is on its way to give it up (C09_close_never_waits_for_idle_owner); before the
          repair Close could wait for the owner of a transaction returned on a closed DB
          (C09_late_transaction_refuted);
        - hence a run of good steps that cannot be extended ends with every client between calls (Idle or
          IdleTr): Close has returned, and so has every other call.  (That an IdleTr client's handle then is
          one of a closed transaction is not part of the statement.)
      Outside: scheduler fairness, the random choice of select, wall-clock time. *)
Theorem C09_close_good_step_decreases : forall N s a s', inv2 s -> closeC s = true -> support N s ->
  good s a = true -> step fixed s a = Some s' -> measure N s' < measure N s.
Proof. exact good_step_decreases. Qed.
Print Assumptions C09_close_good_step_decreases.

Theorem C09_close_never_waits_for_idle_owner : forall s, reachable fixed s ->
  forall i o, crd (cli s i) = true -> trown s = Some o ->
    late_pc (cli s o) = true \/ (cpre (cli s i) = true /\ closetgt s = Some o).
Proof. exact invK_reachable. Qed.
Print Assumptions C09_close_never_waits_for_idle_owner.

Theorem C09_close_good_step_enabled : forall s, reachable fixed s -> closeC s = true -> in_call s ->
  exists a s', good s a = true /\ step fixed s a = Some s'.
Proof. exact good_enabled. Qed.
Print Assumptions C09_close_good_step_enabled.

Theorem C09_close_terminates_partial : forall s, reachable fixed s -> closeC s = true ->
  exists B, forall l s', grun s l = Some s' ->
    length l <= B /\ ((forall a, grun s' [a] = None) -> forall i, cli s' i = Idle \/ cli s' i = IdleTr).
Proof. exact close_terminates_core. Qed.
Print Assumptions C09_close_terminates_partial.

(*    Non-vacuity: from the state above (a Put holds the write lock, Close has closed closeC) a run of 16 good
      steps ends with both clients Idle, both compaction goroutines and compactionError gone, the write lock
      kept by the closed DB, measure 0 (from 4226). *)
Definition c09_close_run : list action :=
  [ACli 0 2 0; ACli 0 0 0; ACli 0 0 0; ACli 0 2 0; ACli 0 0 0; ACli 1 1 0; ACli 1 0 0; AM 0; AM 0; AT 0; AT 0; AT 1;
   ACli 1 0 0; ACli 1 0 0; ACli 1 0 0; ACE 1].
Example C09_close_terminates_nonvacuous :
  match grun c09_s0 c09_close_run with
  | Some s => Some (cli s 0, cli s 1, mc s, tc s, ce s, wl s, measure 2 c09_s0, measure 2 s)
  | None => None
  end = Some (Idle, Idle, MDone, TDone, E_done, WClosed, 4226, 0).
Proof. vm_compute. reflexivity. Qed.

Theorem C09_inv2_init : inv2 init.
Proof. exact (inv2_of_parts init inv2'_init). Qed.
Print Assumptions C09_inv2_init.

(*    Four of the per-label preservation lemmas for client steps (all of them are in Conc/LocksInv.v): releasing the write lock,
      handing it to the overflowed merge writer, handing it to the Transaction, setDone. *)
Theorem C09_inv2_release_write_lock : forall s i pc' l, inv1 s -> inv2' s -> wl s = WHeld (PCli i) ->
  (l = LRelW \/ (l = LRelWU /\ merged s = [] /\ pend s = None)) ->
  cedge1_ok (cli s i) (l, pc') = true -> cedge2_ok (cli s i) (l, pc') = true ->
  inv2' (set_pc (set_wl s WFree) i pc').
Proof. exact step_rel. Qed.
Print Assumptions C09_inv2_release_write_lock.

Theorem C09_inv2_hand_over : forall s i n pc', inv1 s -> inv2' s -> wl s = WHeld (PCli i) -> merged s = [] ->
  pend s = Some n -> cli s n = W2 ->
  cedge1_ok (cli s i) (LGiveW, pc') = true -> cedge2_ok (cli s i) (LGiveW, pc') = true ->
  inv2' (set_pc (set_pend (set_pc (set_wl s (WHeld (PCli n))) n (WF true)) None) i pc').
Proof. exact step_givew. Qed.
Print Assumptions C09_inv2_hand_over.

Theorem C09_inv2_open_transaction : forall s i pc', inv1 s -> inv2' s -> wl s = WHeld (PCli i) ->
  cedge1_ok (cli s i) (LWToTr, pc') = true -> cedge2_ok (cli s i) (LWToTr, pc') = true ->
  inv2' (set_pc (set_trown (set_wl s WTr) (Some i)) i pc').
Proof. exact step_wtotr. Qed.
Print Assumptions C09_inv2_open_transaction.

Theorem C09_inv2_set_done : forall s i pc', inv1 s -> inv2' s -> wl s = WTr -> tr_current s i = true ->
  cedge2_ok (cli s i) (LRelWTr, pc') = true ->
  inv2' (set_pc (set_trown (set_wl s WFree) None) i pc').
Proof. exact step_reltr. Qed.
Print Assumptions C09_inv2_set_done.

(* 4. The code before the repairs leaks: concrete schedules of the unfixed variants end in a state where a lock
      is held by nobody who will release it (and the repaired code, on the same schedule, does not). *)
Example C09_commit_leaks_refuted :
  summary (run unfixed_D4a init trace_D4a) = Some (WTr, Some (PCli 0), Some 0, IdleTr, Idle) /\
  summary (run fixed init trace_D4a) = Some (WTr, None, Some 0, IdleTr, Idle).
Proof. exact commit_leaks_refuted. Qed.
Print Assumptions C09_commit_leaks_refuted.

Example C09_write_large_leaks_refuted :
  summary (run unfixed_D4b init trace_D4b) = Some (WTr, None, Some 0, Idle, Idle) /\
  summary (run fixed init trace_D4b) = Some (WTr, None, Some 0, DC0 XLB, Idle).
Proof. exact write_large_leaks_refuted. Qed.
Print Assumptions C09_write_large_leaks_refuted.

Example C09_open_transaction_leaks_refuted :
  summary (run unfixed_D4c init trace_D4c) = Some (WHeld (PCli 0), None, None, Idle, CL3) /\
  summary (run fixed init trace_D4c) = Some (WFree, None, None, Idle, CL3).
Proof. exact open_transaction_leaks_refuted. Qed.
Print Assumptions C09_open_transaction_leaks_refuted.

Example C09_commit_retry_leaks_refuted :
  (match run unfixed_D7 init trace_D7 with
   | Some s => (cl s, mc s, poisoned s, summary (step unfixed_D7 s (AM 0)))
   | None => (None, M0, false, None) end) = (Some PM, MD1 true, true, None) /\
  (match run fixed init trace_D7 with
   | Some s => match step fixed s (AM 0) with Some s' => Some (mc s') | None => None end
   | None => None end) = Some (MDs true EOk).
Proof. exact commit_retry_leaks_refuted. Qed.
Print Assumptions C09_commit_retry_leaks_refuted.

Theorem C09_poisoned_manifest_sticks : forall s a s',
  poisoned s = true -> step unfixed_D7 s a = Some s' -> poisoned s' = true.
Proof. exact poisoned_sticks_unfixed. Qed.
Print Assumptions C09_poisoned_manifest_sticks.

Example C09_set_read_only_leaks_refuted :
  (match run unfixed_D8 init trace_D8 with
   | Some s => (wl s, cli s 0, cli s 1, ce s, summary (step unfixed_D8 s (ACli 1 0 0)))
   | None => (WFree, Idle, Idle, E_no, None) end) = (WHeld (PCli 0), Idle, CL4, E_done, None) /\
  summary (run fixed init trace_D8) = Some (WFree, None, None, Ret, CL4).
Proof. exact set_read_only_leaks_refuted. Qed.
Print Assumptions C09_set_read_only_leaks_refuted.

(*    OpenTransaction racing Close (repaired by fb021ae; found by this check, findings/C09_close_waits_for_late_transaction.json):
      OpenTransaction passes the closed test and takes the write lock, Close sets closed, closes closeC and reads
      db.tr == nil, OpenTransaction publishes db.tr.  Before the repair it returns the transaction, and Close waits for the
      write lock until the owner of a transaction on a closed DB discards it.  After it, same schedule: it
      sees closeC closed and gives the transaction up itself (tr.lk.Lock, discard, setDone); nine good steps
      later OpenTransaction has returned ErrClosed and Close has returned. *)
Example C09_late_transaction_refuted :
  summary9 unfixed_D9 (run unfixed_D9 init trace_D9) = Some (IdleTr, CL4, WTr, Some 0, MDone, TDone, E_done, false) /\
  summary9 fixed (run fixed init trace_D9) = Some (OT6 XUser, CL4, WTr, Some 0, MDone, TDone, E_done, false) /\
  match run fixed init trace_D9 with
  | Some s => match grun s trace_D9_rest with Some s' => Some (cli s' 0, cli s' 1, wl s', trown s') | None => None end
  | None => None
  end = Some (Idle, Idle, WClosed, None).
Proof. exact late_transaction_refuted. Qed.
Print Assumptions C09_late_transaction_refuted.

(*    The compaction goroutines in read-only mode (repair "a DB in the persistent-error state starts no flush and no
      table compaction"; the branch is part of the model every theorem above is about): a range command that
      reaches tCompaction after SetReadOnly is not executed -- tCompaction acknowledges it with the error and
      returns, CompactRange returns, and a later Close returns with one compaction goroutine already gone. *)
Example C09_read_only_parks_compaction :
  summary_bg (run fixed init (firstn 14 trace_ro_parks)) = Some (WHeld PCE, E_per, M0, T3 XRange, Idle, TrigW BT SCrT) /\
  summary_bg (run fixed init (firstn 15 trace_ro_parks)) = Some (WHeld PCE, E_per, M0, TX, Idle, TrigW BT SCrT) /\
  summary_bg (run fixed init (firstn 17 trace_ro_parks)) = Some (WHeld PCE, E_per, M0, TDone, Idle, Idle) /\
  summary_bg (run fixed init trace_ro_parks) = Some (WClosed, E_done, MDone, TDone, Idle, Idle).
Proof. exact read_only_parks_compaction. Qed.
Print Assumptions C09_read_only_parks_compaction.
