(* Props/C02.v — property C02: iterators enumerate exactly the live pairs, in order, for any walk.
   Each theorem is closed by a lemma of Iter/ or Lsm/ and followed by Print Assumptions, except the
   witness C02_dbiter_prev_error_yields_stale_refuted, which is evaluated; the file also defines the
   inputs of that witness and of the non-vacuity Examples at the end.  Items are numbered 1-10; item 7
   (the constants of the current source) stands after item 10.

   The SPEC is the reference cursor of Iter/Cursor.v (positions SOI | At i | EOI over a strictly
   sorted list; run_cursor l ms = what every call of the sequence ms shows).  The model machines
   (Iter/Merged.v, Iter/Indexed.v, Iter/DBIter.v) mirror the Go iterators and take their children
   as black boxes that behave like cursors ([refines]). *)
From GL Require Import Base.Bytes Base.Order Base.OrderProofs Codec.IKey Codec.IKeyProofs Codec.Block Codec.Table Codec.TableProofs
  Lsm.Lsm Lsm.LsmProofs Lsm.ReadPath Lsm.ReadPathMem Lsm.ReadPathProofs Lsm.IterPath Lsm.IterPathChild Lsm.IterPathLevel
  Lsm.IterPathProofs Lsm.IterPathAbs.
From GL Require Mem.MemDB.
From GL Require Import Iter.Cursor Iter.CursorProofs Iter.Merged Iter.MergedProofs Iter.Indexed Iter.IndexedProofs
  Iter.DBIter Iter.LiveProofs Iter.DBIterProofs Iter.StackProofs Iter.DBIterCong Iter.InvertedProofs Iter.IterErr Iter.IterErrProofs Iter.DBIterErrProofs
  Gen.ConstsOkC02 Corr.Cmps.
Close Scope N_scope.

(* 1. dbIter: over ANY raw iterator that behaves like a cursor over the strictly icmp-sorted,
      well-formed internal entries l, for EVERY finite sequence of First/Last/Seek/Next/Prev
      (direction reversals, stepping off either end and back included), every call returns and
      shows exactly what the cursor over live_pairs l seq shows.  No fuel exhaustion, no panic. *)
Theorem C02_dbiter_refines : forall (c : comparer) (p : kparams) (C : Type) (chstep : C -> move ikey -> C)
  (chobs : C -> option entry) (seq : N) (strict : bool) (l : list entry) (fuel : nat) (ch0 : C),
  comparer_ok c -> dbparams_ok p -> (seq <= keyMaxSeq p)%N ->
  sorted_kv (icmp c) l -> Forall (entry_wf p) l -> length l < fuel ->
  refines (icmp c) chstep chobs ch0 l ->
  forall ms, db_run c p C chstep chobs seq strict fuel (db_init ch0) ms =
             Some (run_cursor (cmp c) (live_pairs c p seq l) ms).
Proof. exact dbiter_refines. Qed.
Print Assumptions C02_dbiter_refines.

(* 2. mergedIterator: over children that behave like cursors over strictly sorted lists with no
      key in common, with ANY heap meeting the contract of container/heap, every call sequence
      shows what the cursor over the merge of the lists shows; the machine never gets stuck. *)
Theorem C02_merged_refines : forall (K V C : Type) (kcmp : K -> K -> comparison) (chstep : C -> move K -> C)
  (chobs : C -> option (K * V)) (pop : list (option K) -> bool -> list nat -> option (nat * list nat))
  (ls : list (list (K * V))) (its : list C),
  ord_ok kcmp -> pop_ok K kcmp pop ->
  Forall (sorted_kv kcmp) ls -> NoDup (map fst (concat ls)) ->
  Forall2 (fun c l => refines kcmp chstep chobs c l) its ls ->
  forall ms, m_run K V C chstep chobs pop (m_init its) ms = Some (run_cursor kcmp (merge_lists kcmp ls) ms).
Proof. exact merged_refines. Qed.
Print Assumptions C02_merged_refines.

(* the executable heap used when the model is run against the code meets the contract *)
Theorem C02_pop_scan_ok : forall (K : Type) (kcmp : K -> K -> comparison), ord_ok kcmp ->
  pop_ok K kcmp (pop_scan K kcmp).
Proof. intros K kcmp ok. exact (pop_scan_ok K kcmp ok). Qed.
Print Assumptions C02_pop_scan_ok.

(* 3. indexedIterator: index and data iterators behaving like cursors, index keys separating the
      blocks: every call sequence shows what the cursor over the concatenation shows. *)
Theorem C02_indexed_refines : forall (K V D I C : Type) (kcmp : K -> K -> comparison)
  (istep : I -> move K -> I) (iobs : I -> option (K * D)) (mk : D -> C)
  (dstep : C -> move K -> C) (dobs : C -> option (K * V))
  (il : list (K * D)) (dl : D -> list (K * V)) (i0 : I) (fuel : nat),
  ord_ok kcmp -> index_ok kcmp il dl ->
  refines kcmp istep iobs i0 il ->
  (forall d, In d (map snd il) -> refines kcmp dstep dobs (mk d) (dl d)) ->
  length il < fuel ->
  forall ms, x_run K V D I C istep iobs mk dstep dobs fuel (x_init i0) ms =
             Some (run_cursor kcmp (concat_blocks il dl) ms).
Proof. exact indexed_refines. Qed.
Print Assumptions C02_indexed_refines.

(* the list an indexed iterator presents is itself strictly sorted (so a level can be a child of
   the merged iterator) *)
Theorem C02_concat_blocks_sorted : forall (K V D : Type) (kcmp : K -> K -> comparison), ord_ok kcmp ->
  forall (il : list (K * D)) (dl : D -> list (K * V)), index_ok kcmp il dl -> sorted_kv kcmp (concat_blocks il dl).
Proof. intros K V D. exact (@concat_blocks_sorted K V D). Qed.
Print Assumptions C02_concat_blocks_sorted.

(* 4. Corollaries about what an iterator can ever show. *)
(* strictly increasing comparer order, hence each live key once *)
Theorem C02_live_pairs_sorted : forall c, comparer_ok c -> forall p s l,
  sorted_kv (icmp c) l -> sorted_kv (cmp c) (live_pairs c p s l).
Proof. exact live_pairs_sorted. Qed.
Print Assumptions C02_live_pairs_sorted.

(* (u, v) is presented iff the newest entry of u with seq <= s exists, is a value, and carries v:
   deleted keys, overwritten versions and versions newer than the iterator's seq never surface *)
Theorem C02_live_pairs_spec : forall c, comparer_ok c -> forall p s l, sorted_kv (icmp c) l -> forall u v,
  In (u, v) (live_pairs c p s l) <->
  exists e, newest_visible c s l u = Some e /\ is_val p e = true /\ v = snd e.
Proof. exact live_pairs_spec. Qed.
Print Assumptions C02_live_pairs_spec.

(* every output of a walk is either "not valid, nil, nil" or a pair of the list: Key/Value
   return the pair under the cursor *)
Theorem C02_outputs_are_pairs : forall (K V : Type) (kcmp : K -> K -> comparison) (l : list (K * V)) ms,
  Forall (fun o => fst o = is_some (snd o) /\ forall x, snd o = Some x -> In x l) (run_cursor kcmp l ms).
Proof. intros K V. exact (@run_cursor_outputs K V). Qed.
Print Assumptions C02_outputs_are_pairs.

(* Seek(k) lands on the first key >= k *)
Theorem C02_seek_first_ge : forall (K V : Type) (kcmp : K -> K -> comparison), ord_ok kcmp ->
  forall (l : list (K * V)) p k, sorted_kv kcmp l ->
  match cobs l (cstep kcmp l p (MSeek k)) with
  | Some x => In x l /\ kcmp (fst x) k <> Lt /\ forall y, In y l -> kcmp (fst y) k <> Lt -> kcmp (fst x) (fst y) <> Gt
  | None => forall y, In y l -> kcmp (fst y) k = Lt
  end.
Proof. intros K V. exact (@seek_lands_first_ge K V). Qed.
Print Assumptions C02_seek_first_ge.

(* 5. Range restriction: slicing the raw iterator at (Start, keyMaxSeq, Seek) / (Limit, keyMaxSeq,
      Seek) - what newIterator passes down - leaves exactly the live pairs with Start <= key < Limit. *)
Theorem C02_slice_is_range : forall c, comparer_ok c -> forall p, dbparams_ok p -> forall s l start limit a b,
  sorted_kv (icmp c) l -> Forall (fun e : entry => (num (fst e) <= keyMaxNum p)%N) l ->
  opt_probe p start = Some a -> opt_probe p limit = Some b ->
  live_pairs c p s (slice_entries c a b l) =
  filter (fun kv => in_range c start limit (fst kv)) (live_pairs c p s l).
Proof. exact live_pairs_slice. Qed.
Print Assumptions C02_slice_is_range.

(* 6. Composition: the DB iterator stack.  Given that the memdb and table iterators under a DB /
      snapshot / transaction iterator behave like cursors over their (sliced) strictly sorted
      entry lists ls with no internal key in common (proved for memdb and tables by C14 / C13),
      dbIter over the merged iterator over them shows, for every call sequence, exactly the
      cursor over the live pairs of the merged entries - which by C02_slice_is_range are the live
      pairs with keys in [Start, Limit). *)
Theorem C02_db_iterator_correct : forall (c : comparer) (p : kparams) (C : Type)
  (chstep : C -> move ikey -> C) (chobs : C -> option entry)
  (pop : list (option ikey) -> bool -> list nat -> option (nat * list nat))
  (seq : N) (strict : bool) (ls : list (list entry)) (its : list C) (fuel : nat),
  comparer_ok c -> dbparams_ok p -> (seq <= keyMaxSeq p)%N -> pop_ok ikey (icmp c) pop ->
  Forall (sorted_kv (icmp c)) ls -> NoDup (map fst (concat ls)) -> Forall (Forall (entry_wf p)) ls ->
  Forall2 (fun ch l => refines (icmp c) chstep chobs ch l) its ls ->
  length (concat ls) < fuel ->
  forall ms, db_run c p _ (merged_step ikey bytes C chstep chobs pop) (m_kv ikey bytes C chobs) seq strict fuel
               (db_init (m_init its)) ms =
             Some (run_cursor (cmp c) (live_pairs c p seq (merge_lists (icmp c) ls)) ms).
Proof. exact db_iterator_correct. Qed.
Print Assumptions C02_db_iterator_correct.

(* the merged and the indexed machines are themselves black boxes that behave like cursors, so the
   stack composes to any depth (a level = indexed over tables = indexed over blocks, under merged) *)
Theorem C02_merged_is_cursor : forall (K V C : Type) (kcmp : K -> K -> comparison) (chstep : C -> move K -> C)
  (chobs : C -> option (K * V)) (pop : list (option K) -> bool -> list nat -> option (nat * list nat))
  (ls : list (list (K * V))) (its : list C),
  ord_ok kcmp -> pop_ok K kcmp pop ->
  Forall (sorted_kv kcmp) ls -> NoDup (map fst (concat ls)) ->
  Forall2 (fun c l => refines kcmp chstep chobs c l) its ls ->
  refines kcmp (merged_step K V C chstep chobs pop) (m_kv K V C chobs) (m_init its) (merge_lists kcmp ls).
Proof. exact merged_is_cursor. Qed.
Print Assumptions C02_merged_is_cursor.

Theorem C02_indexed_is_cursor : forall (K V D I C : Type) (kcmp : K -> K -> comparison)
  (istep : I -> move K -> I) (iobs : I -> option (K * D)) (mk : D -> C)
  (dstep : C -> move K -> C) (dobs : C -> option (K * V))
  (il : list (K * D)) (dl : D -> list (K * V)) (i0 : I) (fuel : nat),
  ord_ok kcmp -> index_ok kcmp il dl ->
  refines kcmp istep iobs i0 il ->
  (forall d, In d (map snd il) -> refines kcmp dstep dobs (mk d) (dl d)) ->
  length il < fuel ->
  refines kcmp (indexed_step K V D I C istep iobs mk dstep dobs fuel) (x_kv K V I C dobs) (x_init i0)
          (concat_blocks il dl).
Proof. exact indexed_is_cursor. Qed.
Print Assumptions C02_indexed_is_cursor.

(* 8. Inverted and empty ranges: with Start >= Limit the view is empty, and an iterator over an empty view
      answers every call of every walk with (false, nil, nil).  (Before its repair DB.NewIterator panicked on such
      a range once a sorted level held tables between the bounds; the harness generates such ranges.) *)
Theorem C02_inverted_range_empty : forall c, comparer_ok c -> forall (start limit : bytes) (l : list (bytes * bytes)),
  cmp c start limit <> Lt -> filter (fun kv => in_range c (Some start) (Some limit) (fst kv)) l = [].
Proof. exact inverted_range_empty. Qed.
Print Assumptions C02_inverted_range_empty.

Theorem C02_empty_view_shows_nothing : forall (K V : Type) (f : K -> K -> comparison) (ms : list (move K)),
  run_cursor f ([] : list (K * V)) ms = map (fun _ => (false, None)) ms.
Proof. intros K V. exact (@run_cursor_nil K V). Qed.
Print Assumptions C02_empty_view_shows_nothing.

(* 9. END TO END ON BYTES.  Here the children of the DB's merged iterator are not black boxes:
      Lsm/IterPath.v builds them as DB.newRawIterator does - the memdb iterator of property C14 over the
      array-encoded skip lists (transaction's memdb first, then the live and the frozen one), the table
      iterator of property C13 over the BYTES of every level-0 table file (and of the transaction's tables),
      one indexed iterator per non-empty deeper level over tFiles.newIndexIterator (the level cut at
      searchMax(Start) / searchMin(Limit), tFilesArrayIndexer.Get handing the slice on to the first and the
      last table only) - puts the merged iterator and dbIter on top and converts the range as DB.newIterator
      does.  Keys travel encoded below dbIter and parsed inside it. *)

(* 9a. the memdb iterator over a memdb state satisfying C14's representation invariant is a cursor over the
       pairs of the skip list inside the slice, and no call of the array model panics or runs out of fuel *)
Theorem C02_mem_child_refines : forall c, comparer_ok c -> forall p, (keyTypeSeek p <= keyTypeVal p)%N ->
  forall mp, MemDB.mparams_ok mp -> forall d sl, mem_ok c p mp d ->
  refines (cmp (ibc c)) (mc_step c mp) mc_obs (mc_new d sl) (sl_pairs (ibc c) sl (mem_pairs mp d)).
Proof. exact mem_child_refines. Qed.
Print Assumptions C02_mem_child_refines.

Theorem C02_mem_child_total : forall c, comparer_ok c -> forall p mp, MemDB.mparams_ok mp -> forall d sl ms,
  mem_ok c p mp d -> mc_bad (bb_run (mc_step c mp) (mc_new d sl) ms) = false.
Proof. exact mem_child_total. Qed.
Print Assumptions C02_mem_child_total.

(* 9b. the table iterator over the bytes of a file that C13's format check accepts is a cursor over the
       file's pairs inside the slice *)
Theorem C02_tab_child_refines : forall c, comparer_ok c -> forall tp crc decompress fname ufc verify strict f bl se hs sl,
  table_wf (ibc c) (tf_reader c tp crc decompress fname ufc verify f) bl se hs ->
  refines (cmp (ibc c)) (tc_step c) tc_obs (tc_new c tp crc decompress fname ufc verify strict f sl)
          (sl_pairs (ibc c) sl (tkvs bl)).
Proof. exact tab_child_refines. Qed.
Print Assumptions C02_tab_child_refines.

(* 9c. one sorted level: the indexed iterator over tFiles.newIndexIterator is a cursor over the pairs of ALL
       tables of the level inside the slice - the cut drops only tables wholly outside [Start, Limit), the
       tables strictly inside the cut need no slicing (the first/last rule), an inverted range cuts to nothing *)
Theorem C02_level_refines : forall c, comparer_ok c -> forall tp crc decompress fname ufc verify strict prs ts sl fuel,
  level_ok c tp crc decompress fname ufc verify strict prs ts -> length ts < fuel ->
  refines (cmp (ibc c)) (lv_step c tp crc decompress fname ufc verify strict fuel) lv_obs
          (x_init (new_index_iterator c ts sl)) (sl_pairs (ibc c) sl (lv_pairs prs ts)).
Proof. exact level_refines. Qed.
Print Assumptions C02_level_refines.

(* 9d. dbIter is parametric in its raw iterator: raw iterators indistinguishable by First/Last/Next/Prev and
       Seek with keys of a class P drive it to the same outputs (used at the encoded/parsed key boundary) *)
Theorem C02_dbiter_parametric : forall c p (C1 C2 : Type) step1 obs1 step2 obs2 seq strict (P : ikey -> Prop) f
  (x1 : C1) (x2 : C2) ms,
  sim C1 C2 step1 obs1 step2 obs2 P x1 x2 -> Forall (umove_in p seq P) ms ->
  db_run c p C1 step1 obs1 seq strict f (db_init x1) ms = db_run c p C2 step2 obs2 seq strict f (db_init x2) ms.
Proof. exact db_run_cong_init. Qed.
Print Assumptions C02_dbiter_parametric.

(* 9e. THE COMPOSITION.  For every lawful user comparer, every well-formed byte state with a write buffer
       (ReadPathProofs.wf_bstate: memdbs satisfy C14's invariant, every table file passes C13's format
       check with decodable keys and recorded bounds, the abstraction is a well-formed L1 layout), every
       sequence number, every range (bounds optional, nil range, INVERTED ranges included) and every finite
       sequence of First/Last/Seek/Next/Prev whose keys are byte strings: the DB iterator over the real
       children shows exactly what the reference cursor over lsm_view shows - the live pairs, at that
       sequence number, of the entries of [abs st] in internal-key order, restricted to [Start, Limit).
       In particular it never panics and never runs out of fuel (the result is Some). *)
Theorem C02_db_iterator_correct_bytes : forall c, comparer_ok c -> forall p, dbparams_ok p ->
  forall mp, MemDB.mparams_ok mp ->
  forall tp crc decompress fname ufc verify ri strict st seq slice fuel ms,
  wf_bstate c p mp tp crc decompress fname ufc verify ri st -> bs_mem st <> None ->
  (seq <= keyMaxSeq p)%N -> range_wf slice -> Forall umove_wf ms ->
  length (all_entries (abs c mp tp crc decompress fname ufc verify ri st)) < fuel ->
  dbi_run c p mp tp crc decompress fname ufc verify strict fuel None [] st seq slice ms =
  Some (run_cursor (cmp c) (lsm_view c p seq slice (abs c mp tp crc decompress fname ufc verify ri st)) ms).
Proof. exact db_iterator_correct_bytes. Qed.
Print Assumptions C02_db_iterator_correct_bytes.

(* 9f. the same with a transaction's private memdb and tables in front (Transaction.NewIterator), over the
       hypotheses the composition needs of the components (iter_wf: memdbs and files as above, deeper levels
       sorted, no internal key stored twice); the list is db_entries = all stored pairs merged in the encoded
       order and parsed.  (The L1 abstraction [abs] has no transaction memdb, hence no lsm_view here.) *)
Theorem C02_db_iterator_correct_bytes_gen : forall c, comparer_ok c -> forall p, dbparams_ok p ->
  forall mp, MemDB.mparams_ok mp ->
  forall tp crc decompress fname ufc verify ri strict auxm auxt st seq slice fuel ms,
  iter_wf c p mp tp crc decompress fname ufc verify ri auxm auxt st ->
  (seq <= keyMaxSeq p)%N -> range_wf slice -> Forall umove_wf ms ->
  length (concat (child_lists c mp tp crc decompress fname ufc verify ri auxm auxt st)) < fuel ->
  dbi_run c p mp tp crc decompress fname ufc verify strict fuel auxm auxt st seq slice ms =
  Some (run_cursor (cmp c) (range_view c slice (live_pairs c p seq
          (db_entries c mp tp crc decompress fname ufc verify ri auxm auxt st))) ms).
Proof. exact db_iterator_bytes_gen. Qed.
Print Assumptions C02_db_iterator_correct_bytes_gen.

(* 9g. what lsm_view is, in terms of reads: the pairs an iterator at sequence number s walks are exactly the
       (key, value) for which the read path of property C01 - lsm_get, which C01_read_path_refines proves equal
       to DB.Get / Snapshot.Get computed on the bytes - finds that value.  Iterators and point reads agree.
       Beyond wf_state this needs: no two stored entries share user key AND sequence number (every sequence
       number is given to one write), and kinds are deletion or value (wf_bstate gives the latter). *)
Theorem C02_view_agrees_with_get : forall c, comparer_ok c -> forall p, kparams_ok p -> forall st,
  wf_state c p st -> uniq (all_entries st) ->
  Forall (fun e => e_kind e = keyTypeDel p \/ e_kind e = keyTypeVal p) (all_entries st) ->
  forall s u v, In (u, v) (live_pairs c p s (lsm_entries c st)) <-> lsm_get c p st u s = GFound v.
Proof. exact view_agrees_with_get. Qed.
Print Assumptions C02_view_agrees_with_get.

(* 10. ERRORS AND RELEASE (Iter/IterErr.v: the error paths of merged_iter.go, indexed_iter.go, db_iter.go -
       iterErr, indexErr/dataErr, strict vs non-strict, setErr - and Release / use after Release /
       SetReleaser; children carry an error status). *)

(* 10a. once an error is recorded every movement call returns false, Valid is false, Key/Value are nil and
        the error stays (merged iterator; dbIter likewise; the indexed iterator returns false for ever -
        its Key/Value/Valid are those of the data iterator whose call failed) *)
Theorem C02_merged_error_stops : forall (K V C : Type) chstep chobs cherr pop strict (s : mestate K C) e ms,
  me_err s = Some e ->
  me_run K V C chstep chobs cherr pop strict s (map CMove ms) = Some (map (fun _ => dead_out K V e) ms).
Proof. exact me_error_stops. Qed.
Print Assumptions C02_merged_error_stops.

Theorem C02_dbiter_error_stops : forall c p (C : Type) chstep chobs cherr seq strict fuel (s : destate C) e ms,
  de_err s = Some e ->
  de_run c p C chstep chobs cherr seq strict fuel s (map CMove ms) = Some (map (fun _ => ddead_out e) ms).
Proof. exact de_error_stops. Qed.
Print Assumptions C02_dbiter_error_stops.

Theorem C02_indexed_error_stops : forall (K V D I C : Type) istep iobs ierr_of mk dstep dobs derr strict fuel
  (s : xestate I C) e ms, xe_err s = Some e ->
  xe_run K V D I C istep iobs ierr_of mk dstep dobs derr strict fuel s (map CMove ms) =
  Some (map (fun _ => xe_out ierr_of dobs s false) ms).
Proof. exact xe_error_stops. Qed.
Print Assumptions C02_indexed_error_stops.

(* 10b. after Release every movement call returns false, Valid is false, Key/Value are nil, and Error() is
        ErrIterReleased - or the error recorded before the Release, which is kept *)
Theorem C02_merged_after_release : forall (K V C : Type) chstep chobs cherr pop strict (s : mestate K C) ms,
  me_run K V C chstep chobs cherr pop strict (me_release s) (map CMove ms) =
  Some (map (fun _ => dead_out K V (err_after_release (me_err s))) ms).
Proof. exact me_after_release. Qed.
Print Assumptions C02_merged_after_release.

Theorem C02_indexed_after_release : forall (K V D I C : Type) istep iobs ierr_of mk dstep dobs derr strict fuel
  (s : xestate I C) ms,
  xe_run K V D I C istep iobs ierr_of mk dstep dobs derr strict fuel (xe_release s) (map CMove ms) =
  Some (map (fun _ => mkEO false None false (Some (err_after_release (xe_err s)))) ms).
Proof. exact xe_after_release. Qed.
Print Assumptions C02_indexed_after_release.

Theorem C02_dbiter_after_release : forall c p (C : Type) chstep chobs cherr seq strict fuel (s : destate C) ms,
  de_run c p C chstep chobs cherr seq strict fuel (de_release s) (map CMove ms) =
  Some (map (fun _ => ddead_out (err_after_release (de_err s))) ms).
Proof. exact de_after_release. Qed.
Print Assumptions C02_dbiter_after_release.

(* 10c. SetReleaser with a second non-nil releaser panics (util.ErrHasReleaser), after Release it panics
        whatever the argument (util.ErrReleased) *)
Theorem C02_set_releaser_twice_panics :
  (forall (K C : Type) (s s1 : mestate K C), me_set_releaser s true = Some s1 -> me_set_releaser s1 true = None) /\
  (forall (I C : Type) (s s1 : xestate I C), xe_set_releaser s true = Some s1 -> xe_set_releaser s1 true = None) /\
  (forall (C : Type) (s s1 : destate C), de_set_releaser s true = Some s1 -> de_set_releaser s1 true = None) /\
  (forall (K C : Type) (s : mestate K C) r, me_set_releaser (me_release s) r = None) /\
  (forall (I C : Type) (s : xestate I C) r, xe_set_releaser (xe_release s) r = None) /\
  (forall (C : Type) (s : destate C) r, de_set_releaser (de_release s) r = None).
Proof.
  split; [exact me_set_releaser_twice|]. split; [exact xe_set_releaser_twice|]. split; [exact de_set_releaser_twice|].
  split; [exact me_set_releaser_after_release|]. split; [exact xe_set_releaser_after_release|exact de_set_releaser_after_release].
Qed.
Print Assumptions C02_set_releaser_twice_panics.

(* 10d. the merged iterator over children that behave like cursors until one of them FAILS (a fuse: the n-th
        call on that child returns false with an error that halts the merged iterator - any error under the
        strict flag, any non-corruption error otherwise): for every call sequence there is a call number j
        such that the first j outputs are exactly those of the cursor over the merge, with no error recorded,
        and from call j on the outputs are (false, nil, nil), not valid, with the child's error recorded.
        It stops, and it never shows a pair the cursor would not show at that call. *)
Theorem C02_merged_error_prefix : forall (K V C : Type) (kcmp : K -> K -> comparison) chstep chobs pop strict
  (ls : list (list (K * V))) (fits : list (fchild C)),
  ord_ok kcmp -> pop_ok K kcmp pop ->
  Forall (sorted_kv kcmp) ls -> NoDup (map fst (concat ls)) ->
  Forall2 (fun c l => refines kcmp chstep chobs c l) (map fc_in fits) ls ->
  Forall (alive_h C strict) fits ->
  forall ms, exists eouts j e,
    me_run K V (fchild C) (f_step chstep) (f_obs chobs) f_err pop strict (me_init fits) (map CMove ms) = Some eouts /\
    degraded K V (length ms) (run_cursor kcmp (merge_lists kcmp ls) ms) eouts j e.
Proof. exact merged_error_prefix. Qed.
Print Assumptions C02_merged_error_prefix.

(* 10e. dbIter: a movement call that returns false after having moved the raw iterator records the raw
        iterator's error (iterErr); the two guards that return false without touching it are listed *)
Theorem C02_dbiter_false_records_error : forall c p (C : Type) chstep chobs cherr seq strict fuel (s : destate C) m s',
  de_err s = None -> de_released s = false ->
  de_move c p C chstep chobs cherr seq strict fuel s m = DEOk s' false ->
  (m = MNext /\ d_dir (de_base s) = DirEOI /\ s' = s) \/ (m = MPrev /\ d_dir (de_base s) = DirSOI /\ s' = s) \/
  match cherr (d_child (de_base s')) with
  | Some e => exists e', de_err s' = Some e'
  | None => True
  end.
Proof. exact de_false_records_error. Qed.
Print Assumptions C02_dbiter_false_records_error.

(* 10f. dbIter over a raw iterator that behaves like a cursor until it FAILS (a fuse: its n-th call returns
        false with an error - of any kind: dbIter records every error of its raw iterator - and it stays
        failed): for EVERY call sequence, forward, backward and mixed, there is a call number j such that the
        first j outputs are exactly those of the cursor over the live pairs, with no error recorded, and from
        call j on the outputs are (false, nil, nil), not valid, with an error recorded.  It stops, and it never
        shows a pair that is not the live pair of its key.  (True of the code from 35e2053 on.) *)
Theorem C02_dbiter_error_prefix : forall (c : comparer) (p : kparams) (C : Type) (chstep : C -> move ikey -> C)
  (chobs : C -> option entry) (seq : N) (strict : bool) (l : list entry) (fuel : nat) (raw : fchild C),
  comparer_ok c -> dbparams_ok p -> (seq <= keyMaxSeq p)%N ->
  sorted_kv (icmp c) l -> Forall (entry_wf p) l -> length l < fuel ->
  refines (icmp c) chstep chobs (fc_in raw) l -> fc_dead raw = false ->
  forall ms, exists eouts j e,
    de_run c p (fchild C) (f_step chstep) (f_obs chobs) f_err seq strict fuel (de_init raw) (map CMove ms) = Some eouts /\
    degraded bytes bytes (length ms) (run_cursor (cmp c) (live_pairs c p seq l) ms) eouts j e.
Proof. exact dbiter_error_prefix. Qed.
Print Assumptions C02_dbiter_error_prefix.

(* 10g. WITNESS OF THE PRE-FIX BEHAVIOUR (defect repaired by 35e2053; de_run_old = the code before it, used
        by this witness only).  dbIter.prev() used to leave its loop when i.iter.Prev() returned false and,
        having saved a pair (del == false), return TRUE without consulting i.iter.Error(): when the raw
        iterator failed between two versions of one user key the saved pair was the OLDER version - Last()
        returned (k, "o") although the live pair is (k, "n"), Error() nil, the error surfacing one call later;
        with a deletion marker on top a deleted key was resurrected.  The repaired code, on the same inputs,
        returns false and records the error at once.  (Regression inputs: findings/C02_dbiter_prev_stale_on_error.json,
        findings/C02_dbiter_prev_stale_db_level.json.) *)
Definition stale_entries : list entry :=
  [ ({| uk := [107]%N; num := pack 5%N 1%N |}, [110]%N);       (* k@5 = "n" *)
    ({| uk := [107]%N; num := pack 3%N 1%N |}, [111]%N) ].     (* k@3 = "o" *)
Definition stale_deleted : list entry :=
  [ ({| uk := [107]%N; num := pack 5%N 0%N |}, []);            (* k@5 deleted *)
    ({| uk := [107]%N; num := pack 3%N 1%N |}, [111]%N) ].
(* a raw iterator whose second call fails with a non-corruption error *)
Definition stale_raw (l : list entry) : destate (fchild (list entry * pos)) := de_init (mkFC (l, SOI) (Some 1) EOther false).
Definition stale_run_old (l : list entry) (cs : list (ecall bytes)) :=
  de_run_old bytewise kp _ (f_step (cur_step (icmp bytewise))) (f_obs cur_obs) f_err 10%N true 5 (stale_raw l) cs.
Definition stale_run (l : list entry) (cs : list (ecall bytes)) :=
  de_run bytewise kp _ (f_step (cur_step (icmp bytewise))) (f_obs cur_obs) f_err 10%N true 5 (stale_raw l) cs.

Theorem C02_dbiter_prev_error_yields_stale_refuted :
  live_pairs bytewise kp 10%N stale_entries = [([107]%N, [110]%N)] /\
  live_pairs bytewise kp 10%N stale_deleted = [] /\
  (* before the repair *)
  stale_run_old stale_entries [CMove MLast; CMove MPrev] =
    Some [mkEO true (Some ([107]%N, [111]%N)) true None; mkEO false None false (Some EOther)] /\
  stale_run_old stale_deleted [CMove MLast; CMove MNext] =
    Some [mkEO true (Some ([107]%N, [111]%N)) true None; mkEO false None false (Some EOther)] /\
  (* the repaired code on the same inputs *)
  stale_run stale_entries [CMove MLast; CMove MPrev] =
    Some [mkEO false None false (Some EOther); mkEO false None false (Some EOther)] /\
  stale_run stale_deleted [CMove MLast; CMove MNext] =
    Some [mkEO false None false (Some EOther); mkEO false None false (Some EOther)].
Proof. repeat split; vm_compute; reflexivity. Qed.
Print Assumptions C02_dbiter_prev_error_yields_stale_refuted.

(* 7. The constants of the current source satisfy the side conditions (re-proved on every run). *)
Theorem C02_constants_ok : dbparams_ok kp.
Proof. exact kp_db_ok. Qed.
Print Assumptions C02_constants_ok.

(* Non-vacuity: a concrete list with an overwritten key, a deleted key and a key written after
   the iterator's sequence number; the hypotheses of C02_dbiter_refines hold for it (the cursor
   itself is a raw iterator), and a walk with reversals shows only the live pairs. *)
Definition ex_entries : list entry :=
  [ ({| uk := [97]%N;  num := pack 7%N 1%N |}, [1]%N);      (* a@7 = 1   (newest a)        *)
    ({| uk := [97]%N;  num := pack 3%N 1%N |}, [0]%N);      (* a@3 = 0   (overwritten)     *)
    ({| uk := [98]%N;  num := pack 6%N 0%N |}, []);         (* b@6 deleted                 *)
    ({| uk := [98]%N;  num := pack 2%N 1%N |}, [2]%N);      (* b@2 = 2   (hidden)          *)
    ({| uk := [99]%N;  num := pack 9%N 1%N |}, [9]%N);      (* c@9 = 9   (after seq 8)     *)
    ({| uk := [99]%N;  num := pack 5%N 1%N |}, [3]%N) ].    (* c@5 = 3                     *)

Example C02_nonvacuous :
  sorted_kv (icmp bytewise) ex_entries /\ Forall (entry_wf kp) ex_entries /\
  refines (icmp bytewise) (cur_step (icmp bytewise)) cur_obs (ex_entries, SOI) ex_entries /\
  live_pairs bytewise kp 8%N ex_entries = [([97]%N, [1]%N); ([99]%N, [3]%N)] /\
  db_run bytewise kp _ (cur_step (icmp bytewise)) cur_obs 8%N false 7 (db_init (ex_entries, SOI))
         [MLast; MPrev; MPrev; MNext; MSeek [98]%N; MPrev; MNext; MNext] =
  Some [(true, Some ([99]%N, [3]%N)); (true, Some ([97]%N, [1]%N)); (false, None);
        (true, Some ([97]%N, [1]%N)); (true, Some ([99]%N, [3]%N)); (true, Some ([97]%N, [1]%N));
        (true, Some ([99]%N, [3]%N)); (false, None)].
Proof.
  split; [repeat constructor|]. split.
  { rewrite Forall_forall. intros e He. repeat (destruct He as [<-|He]; [vm_compute; auto|]). destruct He. }
  split; [apply cursor_refines_itself|]. split; vm_compute; reflexivity.
Qed.

(* Non-vacuity of C02_merged_refines: two cursor children with interleaved keys, the scanning heap. *)
Definition ex_children : list (list (bytes * bytes)) :=
  [ [([1]%N, [10]%N); ([3]%N, [30]%N)]; [([2]%N, [20]%N)]; [] ].

Example C02_nonvacuous_merged :
  ord_ok (cmp bytewise) /\ pop_ok bytes (cmp bytewise) (pop_scan bytes (cmp bytewise)) /\
  Forall (sorted_kv (cmp bytewise)) ex_children /\ NoDup (map fst (concat ex_children)) /\
  Forall2 (fun ch l => refines (cmp bytewise) (cur_step (cmp bytewise)) cur_obs ch l)
          (map (fun l => (l, SOI)) ex_children) ex_children /\
  m_run bytes bytes _ (cur_step (cmp bytewise)) cur_obs (pop_scan bytes (cmp bytewise))
        (m_init (map (fun l => (l, SOI)) ex_children)) [MLast; MPrev; MNext; MNext; MPrev] =
  Some [(true, Some ([3]%N, [30]%N)); (true, Some ([2]%N, [20]%N)); (true, Some ([3]%N, [30]%N));
        (false, None); (true, Some ([3]%N, [30]%N))].
Proof.
  assert (Hok : ord_ok (cmp bytewise)) by (apply cmp_ord_ok; exact bytewise_ok).
  split; [exact Hok|]. split; [apply pop_scan_ok; exact Hok|].
  split; [repeat constructor|].
  split.
  { cbn. repeat constructor; cbn; intros H; repeat (destruct H as [H|H]; [discriminate|]); exact H. }
  split; [repeat constructor; apply cursor_refines_itself|].
  vm_compute. reflexivity.
Qed.

(* Non-vacuity of C02_indexed_refines: three blocks, the middle one empty. *)
Definition ex_index : list (bytes * list (bytes * bytes)) :=
  [ ([2]%N, [([1]%N, [10]%N); ([2]%N, [20]%N)]); ([5]%N, []); ([9]%N, [([7]%N, [70]%N)]) ].

Example C02_nonvacuous_indexed :
  index_ok (cmp bytewise) ex_index (fun d => d) /\
  x_run bytes bytes _ _ _ (cur_step (cmp bytewise)) cur_obs (fun d => (d, SOI)) (cur_step (cmp bytewise)) cur_obs
        4 (x_init (ex_index, SOI)) [MSeek [3]%N; MPrev; MNext; MNext; MLast] =
  Some [(true, Some ([7]%N, [70]%N)); (true, Some ([2]%N, [20]%N)); (true, Some ([7]%N, [70]%N));
        (false, None); (true, Some ([7]%N, [70]%N))].
Proof.
  split; [|vm_compute; reflexivity].
  unfold index_ok, ex_index. split; [repeat constructor|]. split.
  { intros e [<-|[<-|[<-|[]]]]; cbn; repeat constructor. }
  split.
  { intros e x [<-|[<-|[<-|[]]]]; cbn; intros H; repeat (destruct H as [<-|H]; [vm_compute; discriminate|]); destruct H. }
  intros a e b x H e' He' Hx.
  destruct a as [|a0 [|a1 [|a2 a]]]; cbn in H; inversion H; subst; cbn in He'.
  - destruct He' as [<-|[<-|[]]]; cbn in Hx; [destruct Hx|destruct Hx as [<-|[]]; vm_compute; reflexivity].
  - destruct He' as [<-|[]]. cbn in Hx. destruct Hx as [<-|[]]. vm_compute. reflexivity.
  - destruct He'.
  - destruct a; discriminate.
Qed.

(* Non-vacuity of 9e: the byte state of C01's example - three table files WRITTEN BY GOLEVELDB (bloom
   filter; two overlapping level-0 files, a two-block level-1 file) and a model-built memdb - satisfies
   wf_bstate; the byte-level iterator, evaluated, walks a=a4 b=b1 c=c3 e=e2 f=f1 at sequence number 13 (d and g
   are hidden by deletion markers in file 5 and in the buffer, older versions of c sit in file 5 and in level
   1), b=b1 c=c2 e=e2 inside [b, f) at sequence number 8, and nothing over the inverted range [f, b). *)
From GL Require Import Codec.TblCrc Codec.Bloom Gen.Inst Gen.InstTbl Gen.InstMem Gen.BloomInst Gen.ConstsOkMem.
From GL Require Props.C01.

Definition ex_dbi (sl : option krange) (s : N) (ms : list (move bytes)) : option (list (output bytes bytes)) :=
  dbi_run bytewise kp mp tblp tbl_crc C01.ex_nodec C01.ex_fname (bloom_ufc bp (BinInt.Z.of_N 10)) true false 30
          None [] C01.ex_bstate s sl ms.

Example C02_bytes_nonvacuous :
  wf_bstate bytewise kp mp tblp tbl_crc C01.ex_nodec C01.ex_fname (bloom_ufc bp (BinInt.Z.of_N 10)) true 2 C01.ex_bstate /\
  bs_mem C01.ex_bstate <> None /\ MemDB.mparams_ok mp /\
  ex_dbi None 13%N [MFirst; MNext; MNext; MSeek [100]%N; MPrev; MLast; MNext; MPrev; MPrev] =
    Some [(true, Some ([97], [97; 52])); (true, Some ([98], [98; 49])); (true, Some ([99], [99; 51]));
          (true, Some ([101], [101; 50])); (true, Some ([99], [99; 51])); (true, Some ([102], [102; 49]));
          (false, None); (true, Some ([102], [102; 49])); (true, Some ([101], [101; 50]))]%N /\
  ex_dbi (Some (Some [98]%N, Some [102]%N)) 8%N [MLast; MPrev; MPrev; MPrev; MPrev; MNext] =
    Some [(true, Some ([101], [101; 50])); (true, Some ([99], [99; 50])); (true, Some ([98], [98; 49]));
          (false, None); (false, None); (true, Some ([98], [98; 49]))]%N /\
  ex_dbi (Some (Some [102]%N, Some [98]%N)) 13%N [MFirst; MLast; MSeek [99]%N; MNext; MPrev] =
    Some [(false, None); (false, None); (false, None); (false, None); (false, None)].
Proof.
  split; [apply C01.ex_wf; left; reflexivity|]. split; [vm_compute; discriminate|]. split; [exact mp_ok|].
  split; [vm_compute; reflexivity|]. split; vm_compute; reflexivity.
Qed.

(* Non-vacuity of 10d: two children with interleaved keys, the second one fails at its third call with a
   non-corruption error (non-strict merged iterator): First, Next, Next answer like the cursor (the second child is
   called by First and by the Next that leaves its pair); the Prev that must reposition the failing child
   returns false and records the error; Release and First afterwards return false, the error is kept. *)
Example C02_nonvacuous_merged_error :
  Forall (alive_h _ false) [mkFC (nth 0%nat ex_children [], SOI) None EOther false; mkFC (nth 1%nat ex_children [], SOI) (Some 2%nat) EOther false] /\
  me_run bytes bytes _ (f_step (cur_step (cmp bytewise))) (f_obs cur_obs) f_err (pop_scan bytes (cmp bytewise)) false
         (me_init [mkFC (nth 0%nat ex_children [], SOI) None EOther false; mkFC (nth 1%nat ex_children [], SOI) (Some 2%nat) EOther false])
         [CMove MFirst; CMove MNext; CMove MNext; CMove MPrev; CRelease; CMove MFirst] =
  Some [mkEO true (Some ([1]%N, [10]%N)) true None; mkEO true (Some ([2]%N, [20]%N)) true None;
        mkEO true (Some ([3]%N, [30]%N)) true None; mkEO false None false (Some EOther);
        mkEO false None false (Some EOther); mkEO false None false (Some EOther)].
Proof.
  split; [|vm_compute; reflexivity].
  apply Forall_cons; [split; reflexivity|]. apply Forall_cons; [split; reflexivity|]. apply Forall_nil.
Qed.

