(* Props/C09O.v — property C09, options part: the RELATIONS between option values that the rest of goleveldb
   relies on, each traced to its use site, and whether the getters of leveldb/opt/options.go establish them for
   EVERY Options value (nil receiver, negative, zero and huge fields included).
   Each theorem and Example restates a lemma of Gen/OptionsProofs.v under the naming below; theorems are followed
   by Print Assumptions.

   Model: Gen/Options.v (every getter as written; defaults regenerated from the Go source; Go int = 64-bit wrapping;
   float64 computed exactly with an explicit "Outside the exact domain" result, see the header of that file).
   Tie: (K) case kind KOpt of Corr/C09Run.v — generated Options values through the REAL getters
   (opt.VerifGetters) must give the model's results; (P) every witness below is exercised on the real DB in its
   own process under a watchdog (harness/cmd/c09/optwit.go, same values).

   Naming: opt_<relation>_holds = the relation holds for every Options value; opt_<relation>_refuted = a witness
   violates it; opt_<relation>_old_refuted = a witness violated it BEFORE the repair named next to it (the getter
   before the repair is kept in the model as <getter>_old), and opt_<relation>_holds is about the repaired getter.

   RELATIONS (o ranges over all Options values incl. nil):
    R1  1 <= GetBlockRestartInterval                 table/writer.go blockWriter.append: nEntries % restartInterval
    R2  1 <= GetBlockSize                            table/writer.go Writer.Append: bytesLen() >= blockSize
    R2' GetBlockSize + 5 and 4 * (GetBlockSize + 5) do not wrap
                                                     table.go newTableOps / db.go recoverTable: util.NewBufferPool(bs + 5)
    R3  0 <= GetFilterBaseLg < 64                    table/writer.go filterWriter.flush: offset / uint64(1 << baseLg)
    R4  0 <= GetCompactionTableSize(level)           table/writer.go NewWriter: make([]byte, size) / pool.Get(size);
        (> 0 is NOT needed)                          db_compaction.go tableCompactionBuilder.needFlush: BytesLen() >= tableSize
    R5  1 <= GetCompactionL0Trigger                  version.go computeCompaction: score = len(tables) / trigger, needCompaction = score >= 1
    R6  GetCompactionL0Trigger <= GetWriteL0PauseTrigger
                                                     db_write.go DB.flush: at tLen >= pauseTrigger the writer waits for a table
                                                     compaction (compTriggerWait(tcompCmdC)) and re-evaluates; db_compaction.go
                                                     tCompaction acknowledges at once when tableNeedCompaction() is false
    R7  trigger <= slowdown <= pause                 NOT needed: the slowdown branch of DB.flush only sleeps 1 ms once per write
    R8  beyond the per-level table, GetCompactionTotalSize(level) >= the base limit (>= 1)
                                                     version.go computeCompaction: score = size / limit for level >= 1
    R9  1 <= GetMaxManifestFileSize                  session.go commit: manifest.Size() >= max starts a new manifest
    R10 1 <= GetWriteBuffer                          db_state.go newMem: memdb.New(maxInt(writeBuffer, n)); db_write.go Write:
                                                     batch.internalLen > writeBuffer selects the transaction path
    R11 0 <= cache capacities, negative = disabled   table.go newTableOps: capacity > 0 creates the cacher
    R12 2 * GetIteratorSamplingRate does not wrap    db_iter.go DB.iterSamplingRate: rand.Intn(2 * rate), reached when rate > 0
    R13 GetCompression is none or snappy             table/writer.go writeBlock tests == SnappyCompression
    R14 limit factors >= 1 (the limits themselves may be any int: they are only compared with sizes)
                                                     session_compaction.go getCompactionRange / newCompaction / expand, version.go pickMemdbLevel
    R15 Strict = 0 reads as DefaultStrict            options.go dupOptions does the same substitution *)
From Coq Require Import ZArith List.
From GL Require Import Gen.Consts Gen.Options Gen.OptionsProofs.
Import ListNotations.
Open Scope Z_scope.

(* R1, R2, R9, R10: the "<= 0 selects the default" getters *)
Theorem opt_restart_interval_pos_holds : forall o, 1 <= GetBlockRestartInterval o.
Proof. exact restart_interval_pos. Qed.
Print Assumptions opt_restart_interval_pos_holds.

Theorem opt_block_size_pos_holds : forall o, 1 <= GetBlockSize o.
Proof. exact block_size_pos. Qed.
Print Assumptions opt_block_size_pos_holds.

Theorem opt_max_manifest_pos_holds : forall o, 1 <= GetMaxManifestFileSize o.
Proof. exact max_manifest_pos. Qed.
Print Assumptions opt_max_manifest_pos_holds.

Theorem opt_write_buffer_pos_holds : forall o, 1 <= GetWriteBuffer o.
Proof. exact write_buffer_pos. Qed.
Print Assumptions opt_write_buffer_pos_holds.

(* R2': RESOURCE REQUEST, not repaired.  BlockSize = MaxInt makes NewBufferPool(bs + 5) see a wrapped, negative
   baseline: Open panics ("baseline can't be <= 0"; with DisableBufferPool the DB works).  Block sizes are
   allocation sizes (the pool allocates baseline/4 bytes for the smallest read): a value near the address space is a
   request the process cannot serve however the getter clamps it; every block size up to 2^60 passes the pool's
   arithmetic.  WriteBuffer = MaxInt (memdb.New: makeslice panics in Open) and CompactionTableSize near MaxInt
   (table.NewWriter allocates the table size; float64(MaxInt) rounds to 2^63, outside the model's exact domain, and
   the real conversion yields MinInt64: the compaction goroutine panics) are the same class; all three are exercised
   on the real DB with their outcome class recorded in the evidence and accepted whatever it is. *)
Theorem opt_block_size_pool_refuted : exists o, pool_ok (GetBlockSize o) = false.
Proof. exact pool_refuted. Qed.
Print Assumptions opt_block_size_pool_refuted.

Theorem opt_block_size_pool_small_holds : forall o, GetBlockSize o <= 2 ^ 60 -> pool_ok (GetBlockSize o) = true.
Proof. exact pool_ok_small. Qed.
Print Assumptions opt_block_size_pool_small_holds.

(* R3: REPAIRED (fix: GetFilterBaseLg is bounded by 63).  Before: FilterBaseLg >= 64 with a Filter set made
   filterWriter.flush divide by uint64(1<<64) = 0 in table.NewWriter: the memdb flush goroutine panicked and the
   process died at the first flush. *)
Theorem opt_filter_base_old_refuted : exists o, filter_shift_ok (GetFilterBaseLg_old o) = false.
Proof. exact filter_shift_old_refuted. Qed.
Print Assumptions opt_filter_base_old_refuted.

Theorem opt_filter_base_holds : forall o, filter_shift_ok (GetFilterBaseLg o) = true.
Proof. exact filter_shift_holds. Qed.
Print Assumptions opt_filter_base_holds.

Theorem opt_filter_base_range_holds : forall o, 1 <= GetFilterBaseLg o <= 63.
Proof. exact filter_base_range. Qed.
Print Assumptions opt_filter_base_range_holds.

(* R4: inside the exact float domain a table size is never negative (what NewWriter needs); it can be zero
   (CompactionTableSize = 1, multiplier 0.5, level 1): every user key then gets its own table -- degenerate, but the
   real DB works (witness exercised). *)
Theorem opt_table_size_nonneg_holds : forall o level z, GetCompactionTableSize o level = Val z -> 0 <= z.
Proof. exact table_size_nonneg. Qed.
Print Assumptions opt_table_size_nonneg_holds.

Theorem opt_table_size_pos_refuted : exists o level, GetCompactionTableSize o level = Val 0.
Proof. exact table_size_pos_refuted. Qed.
Print Assumptions opt_table_size_pos_refuted.

(* R5: REPAIRED (fix: a non-positive CompactionL0Trigger selects the default).  Before: a negative trigger
   was returned as it is, the level-0 score was never >= 1, level 0 grew to the pause trigger and the writer spun
   (R6's loop). *)
Theorem opt_l0_trigger_pos_old_refuted : exists o, GetCompactionL0Trigger_old o < 1.
Proof. exact l0_trigger_pos_old_refuted. Qed.
Print Assumptions opt_l0_trigger_pos_old_refuted.

Theorem opt_l0_trigger_pos_holds : forall o, 1 <= GetCompactionL0Trigger o.
Proof. exact l0_trigger_pos. Qed.
Print Assumptions opt_l0_trigger_pos_holds.

(* R6: REPAIRED (fix: GetWriteL0PauseTrigger is never below the level-0 compaction trigger).  Before:
   WriteL0PauseTrigger = 2 (default compaction trigger 4), or CompactionL0Trigger = 16 (default pause trigger 12):
   a writer whose memdb is full finds tLen >= pauseTrigger, asks tCompaction and waits; tCompaction finds no
   compaction necessary and acknowledges; the writer re-evaluates the same condition: a busy loop for ever
   (state WF -> TrigS BT (SFlushPause _) -> TrigW -> WF of Conc/Locks.v, whose data-dependent tests are
   non-deterministic: the LTS theorems exclude deadlock, not this livelock -- the relation below does). *)
Theorem opt_l0_pause_ge_trigger_old_refuted :
  GetWriteL0PauseTrigger_old (Some w_pause_below_trigger) < GetCompactionL0Trigger_old (Some w_pause_below_trigger) /\
  GetWriteL0PauseTrigger_old (Some w_trigger_above_pause) < GetCompactionL0Trigger_old (Some w_trigger_above_pause).
Proof. exact l0_pause_ge_trigger_old_refuted. Qed.
Print Assumptions opt_l0_pause_ge_trigger_old_refuted.

Theorem opt_pause_implies_compaction_old_refuted :
  exists o tlen, 0 <= tlen /\ writer_pauses_old o tlen = true /\ need_l0_compaction_old o tlen = false.
Proof. exact pause_implies_compaction_old_refuted. Qed.
Print Assumptions opt_pause_implies_compaction_old_refuted.

Theorem opt_l0_pause_ge_trigger_holds : forall o, GetCompactionL0Trigger o <= GetWriteL0PauseTrigger o.
Proof. exact l0_pause_ge_trigger. Qed.
Print Assumptions opt_l0_pause_ge_trigger_holds.

(* whenever the writer takes the pause branch, the version it looks at needs a level-0 compaction: the table
   compaction it waits for is one tCompaction will run (the statement is the implication between the two
   comparisons; that the compaction then removes tables from level 0 is not part of it) *)
Theorem opt_pause_implies_compaction_holds :
  forall o tlen, writer_pauses o tlen = true -> need_l0_compaction o tlen = true.
Proof. exact pause_implies_compaction. Qed.
Print Assumptions opt_pause_implies_compaction_holds.

(* R7: not needed, still violable, works on the real DB (witness exercised: trigger 2, slowdown 10, pause 4) *)
Theorem opt_l0_slowdown_order_refuted :
  exists o, ~ (GetCompactionL0Trigger o <= GetWriteL0SlowdownTrigger o <= GetWriteL0PauseTrigger o).
Proof. exact l0_slowdown_order_refuted. Qed.
Print Assumptions opt_l0_slowdown_order_refuted.

(* R8: REPAIRED (fix: a CompactionTotalSizeMultiplier below one is read as one).  Before: with multiplier 0.5
   the limits shrink to zero with the level; a table that reaches a level whose limit is below its own size gives
   that level a score >= 1 whatever else it holds, is moved one level down, meets a still smaller limit, and so on
   for ever (CompactRange never returned; the manifest and the level list grew without bound).  After: beyond the
   per-level table no limit is below the base limit.  RESIDUAL, not repaired and not an option-only relation: a
   flat multiplier of exactly one with a base limit smaller than one table never lets that table rest either
   (scenario total-1-mult-one: outcome recorded). *)
Theorem opt_total_size_ge_base_old_refuted :
  exists o level, per_level_len o <= level /\ GetCompactionTotalSize_old o level = Val 0 /\ 1 <= total_base o.
Proof. exact total_size_ge_base_old_refuted. Qed.
Print Assumptions opt_total_size_ge_base_old_refuted.

Theorem opt_total_size_ge_base_holds : forall o level z,
  per_level_len o <= level -> GetCompactionTotalSize o level = Val z -> total_base o <= z /\ 1 <= z.
Proof. exact total_size_ge_base_pos. Qed.
Print Assumptions opt_total_size_ge_base_holds.

(* a limit of zero for ONE level is still expressible through the per-level table (multiplier 2^-30 for level 1):
   score = size / 0 = +Inf, the level is simply always compacted into the next one, whose limit follows the global
   multiplier again: the real DB works (witness exercised) *)
Theorem opt_total_size_pos_refuted : exists o level, GetCompactionTotalSize o level = Val 0.
Proof. exact total_size_pos_refuted. Qed.
Print Assumptions opt_total_size_pos_refuted.

Theorem opt_total_size_nonneg_holds : forall o level z, GetCompactionTotalSize o level = Val z -> 0 <= z.
Proof. exact total_size_nonneg. Qed.
Print Assumptions opt_total_size_nonneg_holds.

(* R11: cache capacities and the "-1 disables" convention *)
Theorem opt_cache_capacity_nonneg_holds : forall o, 0 <= GetBlockCacheCapacity o /\ 0 <= GetOpenFilesCacheCapacity o.
Proof. exact cache_capacity_nonneg. Qed.
Print Assumptions opt_cache_capacity_nonneg_holds.

Theorem opt_cache_negative_disables_holds : forall o,
  (BlockCacheCapacity o < 0 -> GetBlockCacheCapacity (Some o) = 0) /\
  (OpenFilesCacheCapacity o < 0 -> GetOpenFilesCacheCapacity (Some o) = 0) /\
  (0 < BlockCacheCapacity o -> GetBlockCacheCapacity (Some o) = BlockCacheCapacity o) /\
  (0 < OpenFilesCacheCapacity o -> GetOpenFilesCacheCapacity (Some o) = OpenFilesCacheCapacity o).
Proof. exact cache_negative_disables. Qed.
Print Assumptions opt_cache_negative_disables_holds.

(* R12: REPAIRED (fix: GetIteratorSamplingRate is bounded by MaxInt/2).  Before: IteratorSamplingRate above
   MaxInt/2 (e.g. MaxInt as "never sample") made 2*rate wrap to a non-positive number and NewIterator panicked in
   rand.Intn. *)
Theorem opt_sampling_old_refuted : exists o, sampling_ok (GetIteratorSamplingRate_old o) = false.
Proof. exact sampling_old_refuted. Qed.
Print Assumptions opt_sampling_old_refuted.

Theorem opt_sampling_holds : forall o, sampling_ok (GetIteratorSamplingRate o) = true.
Proof. exact sampling_holds. Qed.
Print Assumptions opt_sampling_holds.

Theorem opt_sampling_range_holds : forall o, 0 <= GetIteratorSamplingRate o <= 2 ^ 62 - 1.
Proof. exact sampling_range. Qed.
Print Assumptions opt_sampling_range_holds.

(* R13 *)
Theorem opt_compression_valid_holds : forall o,
  GetCompression o = dflt opt_NoCompression \/ GetCompression o = dflt opt_SnappyCompression.
Proof. exact compression_valid. Qed.
Print Assumptions opt_compression_valid_holds.

(* R14: the factors are positive; the products wrap for huge factors (limit -2^63 from factor 2^53 on a 1 KiB
   table size): the limits are only compared with sizes, the real DB works (witness exercised) *)
Theorem opt_limit_factors_pos_holds : forall o,
  1 <= factor_of o CompactionExpandLimitFactor opt_DefaultCompactionExpandLimitFactor /\
  1 <= factor_of o CompactionGPOverlapsFactor opt_DefaultCompactionGPOverlapsFactor /\
  1 <= factor_of o CompactionSourceLimitFactor opt_DefaultCompactionSourceLimitFactor.
Proof. exact limit_factors_pos. Qed.
Print Assumptions opt_limit_factors_pos_holds.

Theorem opt_limit_nonneg_refuted : exists o z, GetCompactionExpandLimit o 0 = Val z /\ z < 0.
Proof. exact limit_nonneg_refuted. Qed.
Print Assumptions opt_limit_nonneg_refuted.

(* R15 *)
Theorem opt_strict_zero_is_default_holds : forall o s, Strict o = 0 -> GetStrict (Some o) s = GetStrict None s.
Proof. exact strict_zero_is_default. Qed.
Print Assumptions opt_strict_zero_is_default_holds.

(* Non-vacuity: the repaired getters on the witnesses of the repaired relations *)
Example opt_witnesses_repaired :
  GetWriteL0PauseTrigger (Some w_pause_below_trigger) = 4 /\ GetWriteL0PauseTrigger (Some w_trigger_above_pause) = 16 /\
  GetCompactionL0Trigger (Some w_trigger_negative) = 4 /\ GetFilterBaseLg (Some w_filter_base_64) = 63 /\
  GetIteratorSamplingRate (Some w_sampling_maxint) = 2 ^ 62 - 1 /\
  GetCompactionTotalSize (Some w_total_mult_half) 13 = Val 4096.
Proof. exact witnesses_repaired. Qed.

(* the float-derived statements are not vacuous: the defaults are inside the exact domain (levels that exist) *)
Example opt_default_sizes :
  map (GetCompactionTableSize None) [0; 1; 6; 64] = [Val 2097152; Val 2097152; Val 2097152; Val 2097152] /\
  map (GetCompactionTotalSize None) [0; 1; 2; 7] = [Val 10485760; Val 104857600; Val 1048576000; Val 104857600000000] /\
  GetCompactionExpandLimit None 0 = Val 52428800 /\ GetCompactionGPOverlaps None 0 = Val 20971520 /\
  GetCompactionSourceLimit None 0 = Val 2097152.
Proof. exact default_sizes. Qed.

Example opt_default_total_size_domain :
  GetCompactionTotalSize None 11 = Val (10485760 * 10 ^ 11) /\ GetCompactionTotalSize None 12 = Outside.
Proof. exact default_total_size_domain. Qed.

(* every getter on a nil receiver, in the order of opt.VerifScalarNames *)
Example opt_default_scalars :
  scalar_results None None None =
  [0; 0; 8388608; 0; 16; 4096; 4; 1; 2; 0; 0; 0; 0; 0; 0; 0; 0; 1048576; 0; 0; 0; 500; 0; 58; 4194304; 12; 8; 11; 67108864;
   0; 0; 0; 0; 58].
Proof. exact default_scalars. Qed.
