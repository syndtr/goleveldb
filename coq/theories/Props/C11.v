(* Props/C11.v — property C11: transactions are isolated, atomic and leave no residue when discarded.
   Theorems are closed by lemmas of Lsm/Txn*.v and followed by Print Assumptions; the example programs and the
   byte-level world defined here are evaluated.  Items (0)-(8): the model Lsm/Txn.v (the transaction machine on top of
   the history machine of Lsm/History.v, and Transaction.Get on top of the read path of Lsm/Lsm.v); proofs: Lsm/TxnProofs.v.
   Items (9)-(17): transactions at BYTE level (Lsm/TxnBytes.v, db_transaction.go branch by branch over the byte state of
   Props/C01.v (5)/(7)): refinement of the first machine, Get and iterators on bytes, outsiders unaffected, the commit as
   one manifest record and under crashes and faults, failed writes, and the refuted earlier setting of db.seq.
   Every theorem of (0)-(8) quantifies over ALL traces: any number of base writes, snapshots, releases, admissible
   background reorganisations, transactions with bodies of any size, failed commits, held-back writers,
   oversized batches and Close with an open transaction. *)
From GL Require Import Base.Order Codec.IKey Codec.BytesCmp Codec.BytesCmpProofs Lsm.Lsm Lsm.Compact Lsm.LsmProofs
  Lsm.History Lsm.HistoryProofs Lsm.Txn Lsm.TxnProofs Gen.ConstsOk.

(* (0) Refinement: after any trace the shared state is exactly the state of the history machine run on the
   linearised trace (a committed transaction = ONE write of all its records at the commit point, a discarded
   one = nothing), and the open transaction holds exactly the records written through it, stamped with the
   sequence numbers above the shared one. *)
Theorem C11_txn_refines_history : forall ops, sim (trun ops) (lin ops).
Proof. exact txn_refines_history. Qed.
Print Assumptions C11_txn_refines_history.

(* (1) Everyone outside a transaction reads, at the current sequence number, the plain map of the committed
   writes only — at every point of every trace. *)
Theorem C11_outside_is_map : forall c, comparer_ok c -> forall p ops k, tops_ok c p t_init ops ->
  out_get c p (trun ops) k (h_seq (ts_h (trun ops))) = a_get c k (base_map c p ops).
Proof. exact outside_is_map. Qed.
Print Assumptions C11_outside_is_map.

(* (1') A snapshot taken at any instant keeps showing the committed writes of that instant, whatever is
   committed or discarded later. *)
Theorem C11_snapshot_sees_base : forall c, comparer_ok c -> forall p ops1 ops2 k,
  tops_ok c p t_init (ops1 ++ ops2) ->
  In (h_seq (ts_h (trun ops1))) (h_snaps (ts_h (trun (ops1 ++ ops2)))) ->
  out_get c p (trun (ops1 ++ ops2)) k (h_seq (ts_h (trun ops1))) = a_get c k (base_map c p ops1).
Proof. exact snapshot_sees_base. Qed.
Print Assumptions C11_snapshot_sees_base.

(* (2) Isolation.  While the transaction is open — through any body of its own writes, failed commits,
   outside snapshots and releases, background reorganisations and held-back writers — the DB's sequence
   number and history do not move; a read at the current sequence number is the plain map of the writes
   committed before it was opened; every protected read (current or any live snapshot, taken before or while
   it is open) is answered as the history at open answers it; and the private entries all carry sequence
   numbers above the DB's (which is why an outside reader cannot see them even once they sit in the version). *)
Theorem C11_txn_invisible_outside : forall c, comparer_ok c -> forall p ops1 body,
  ts_txn (trun ops1) = None -> forallb keeps_open body = true ->
  tops_ok c p t_init (ops1 ++ TOpen :: body) ->
  let s0 := trun ops1 in let s1 := trun (ops1 ++ TOpen :: body) in
  ts_txn s1 <> None /\
  h_seq (ts_h s1) = h_seq (ts_h s0) /\ h_hist (ts_h s1) = h_hist (ts_h s0) /\
  (forall k, out_get c p s1 k (h_seq (ts_h s1)) = a_get c k (base_map c p ops1)) /\
  (forall k q, protected (ts_h s1) q -> out_get c p s1 k q = hist_get c p (ts_h s0) k q) /\
  (forall t x, ts_txn s1 = Some t -> In x (t_writes t) -> (h_seq (ts_h s1) < e_seq x <= t_seq t)%N).
Proof. exact txn_invisible_outside. Qed.
Print Assumptions C11_txn_invisible_outside.

(* (3) The transaction's own view: its writes so far layered over the plain map at open. *)
Theorem C11_txn_reads_overlay : forall c, comparer_ok c -> forall p ops1 body k,
  ts_txn (trun ops1) = None -> forallb keeps_open body = true ->
  tops_ok c p t_init (ops1 ++ TOpen :: body) ->
  txn_get c p (trun (ops1 ++ TOpen :: body)) k =
  a_get c k (fold_left (a_apply c p) (body_writes body) (base_map c p ops1)).
Proof. exact txn_reads_overlay. Qed.
Print Assumptions C11_txn_reads_overlay.

(* (4) Atomic commit: a successful Commit is ONE step of the history machine — the write of all the
   transaction's records; there is no state in between.  Afterwards everyone reads the plain map of the base
   writes followed by ALL of them, which is what the transaction itself read just before. *)
Theorem C11_commit_atomic : forall c, comparer_ok c -> forall p ops1 body,
  ts_txn (trun ops1) = None -> forallb keeps_open body = true ->
  tops_ok c p t_init (ops1 ++ TOpen :: body) ->
  let s1 := trun (ops1 ++ TOpen :: body) in
  let s2 := trun ((ops1 ++ TOpen :: body) ++ [TCommit true]) in
  s2 = {| ts_h := hstep (ts_h s1) (HWrite (body_writes body)); ts_txn := None |} /\
  (forall k, out_get c p s2 k (h_seq (ts_h s2)) =
             a_get c k (fold_left (a_apply c p) (body_writes body) (base_map c p ops1))) /\
  (forall k, out_get c p s2 k (h_seq (ts_h s2)) = txn_get c p s1 k).
Proof. exact commit_atomic. Qed.
Print Assumptions C11_commit_atomic.

(* (4') The code commits in two steps (the tables enter the version, then db.seq is set).  The state in
   between is unobservable: entries above a reader's sequence number do not count. *)
Theorem C11_commit_window_unobservable : forall c p h t k q,
  (forall x, In x (t_writes t) -> (h_seq h < e_seq x)%N) -> (q <= h_seq h)%N ->
  store_get c p (publish_version h t) k q = store_get c p h k q.
Proof. exact commit_window_unobservable. Qed.
Print Assumptions C11_commit_window_unobservable.

(* (5) Discard, and Close with the transaction open: the whole run IS the run in which the transaction never
   existed — same store, history, sequence number and snapshots — so nothing of it can ever become visible. *)
Theorem C11_discard_no_trace : forall ops1 body fin,
  ts_txn (trun ops1) = None -> forallb keeps_open body = true -> fin = TDiscard \/ fin = TClose ->
  trun ((ops1 ++ TOpen :: body) ++ [fin]) = trun (ops1 ++ body_outside body) /\
  h_seq (ts_h (trun ((ops1 ++ TOpen :: body) ++ [fin]))) = h_seq (ts_h (trun ops1)) /\
  h_hist (ts_h (trun ((ops1 ++ TOpen :: body) ++ [fin]))) = h_hist (ts_h (trun ops1)).
Proof. exact discard_no_trace. Qed.
Print Assumptions C11_discard_no_trace.

(* (6) A batch larger than the write buffer: all of its records in one step, or nothing. *)
Theorem C11_large_batch_all_or_nothing : forall s recs okb, ts_txn s = None ->
  tstep s (TBigWrite recs okb) =
  if okb then {| ts_h := hstep (ts_h s) (HWrite recs); ts_txn := None |} else s.
Proof. exact large_batch_all_or_nothing. Qed.
Print Assumptions C11_large_batch_all_or_nothing.

Theorem C11_large_batch_reads : forall c, comparer_ok c -> forall p ops recs okb k,
  ts_txn (trun ops) = None -> tops_ok c p t_init (ops ++ [TBigWrite recs okb]) ->
  let s := trun (ops ++ [TBigWrite recs okb]) in
  out_get c p s k (h_seq (ts_h s)) =
  a_get c k (if okb then fold_left (a_apply c p) recs (base_map c p ops) else base_map c p ops).
Proof. exact large_batch_reads. Qed.
Print Assumptions C11_large_batch_reads.

(* (7) Other writers wait: while a transaction is open a write, an OpenTransaction and an oversized Write have
   no effect at that point of the trace (the blocking itself and the order of the queued writers are checked on
   the implementation). *)
Theorem C11_writers_wait : forall s t recs okb, ts_txn s = Some t ->
  tstep s (TOut (HWrite recs)) = s /\ tstep s TOpen = s /\ tstep s (TBigWrite recs okb) = s.
Proof. exact writers_wait. Qed.
Print Assumptions C11_writers_wait.

(* (8) Layout level.  Transaction.Get on the code's structures (private buffer first, then DB.get with the
   private tables in front of level 0) returns the newest visible entry among everything it consults. *)
Theorem C11_txn_lsm_get_correct : forall c, comparer_ok c -> forall p, kparams_ok p -> forall auxm st k s,
  ssorted c auxm -> kinds_ok p auxm -> newer_thanP auxm (all_entries st) -> wf_state c p st ->
  txn_lsm_get c p auxm st k s = group_res p (newest c k s (auxm ++ all_entries st) None).
Proof. exact txn_lsm_get_correct. Qed.
Print Assumptions C11_txn_lsm_get_correct.

(* In the transaction's situation (DB buffers empty, private entries newer than [base], shared entries at most
   [base]): the private tables, consulted first, are sound; and at any sequence number up to [base] — every
   outside reader, also inside the commit window — the private entries do not count. *)
Theorem C11_aux_tables_first_sound : forall c, comparer_ok c -> forall p, kparams_ok p -> forall auxm st base,
  st_mem st = [] -> st_frozen st = [] ->
  ssorted c auxm -> kinds_ok p auxm ->
  tables_ok c p (st_aux st) -> uniq (LsmProofs.level_entries (st_aux st)) ->
  newer_thanP auxm (LsmProofs.level_entries (st_aux st)) ->
  wf_state c p (outside_of st) ->
  (forall e, In e (private_entries auxm st) -> (base < e_seq e)%N) ->
  (forall e, In e (shared_entries st) -> (e_seq e <= base)%N) ->
  (forall k s, txn_lsm_get c p auxm st k s = group_res p (newest c k s (auxm ++ all_entries st) None)) /\
  (forall k s, (s <= base)%N -> txn_lsm_get c p auxm st k s = lsm_get c p (outside_of st) k s) /\
  (forall k s, (s <= base)%N -> lsm_get c p st k s = lsm_get c p (outside_of st) k s).
Proof. exact aux_tables_first_sound. Qed.
Print Assumptions C11_aux_tables_first_sound.

(* The boolean certificate the correspondence check evaluates on every state dumped inside an open
   transaction implies those conclusions for that state. *)
Theorem C11_txn_layout_cert_sound : forall c, comparer_ok c -> forall p, kparams_ok p ->
  forall dbseq tseq auxm st, txn_layout_okb c p dbseq tseq auxm st = true ->
  (forall k s, txn_lsm_get c p auxm st k s = group_res p (newest c k s (auxm ++ all_entries st) None)) /\
  (forall k s, (s <= dbseq)%N -> txn_lsm_get c p auxm st k s = lsm_get c p (outside_of st) k s) /\
  (forall k s, (s <= dbseq)%N -> lsm_get c p st k s = lsm_get c p (outside_of st) k s).
Proof. exact txn_layout_cert_sound. Qed.
Print Assumptions C11_txn_layout_cert_sound.

(* base: 7->1, 8->2; snapshot; transaction: 7 deleted, 9->3, 8->4 while an outside write is held back and a
   snapshot is taken; a failed commit; then commit / discard / close. *)
Definition ex_pre : list top := [TOut (HWrite [(1, [7], [1]); (1, [8], [2])]%N); TOut HSnap].
Definition ex_body : list top :=
  [TWrite [(0, [7], [])]%N; TOut (HWrite [(1, [7], [99])]%N); TOut HSnap; TWrite [(1, [9], [3]); (1, [8], [4])]%N;
   TCommit false].

Example C11_nonvacuous_hyps :
  ts_txn (trun ex_pre) = None /\ forallb keeps_open ex_body = true /\
  tops_ok bytewise kp t_init (ex_pre ++ TOpen :: ex_body).
Proof.
  split; [reflexivity|]. split; [reflexivity|].
  cbn [tops_ok top_ok app ex_pre ex_body hop_ok]. repeat split; repeat constructor; vm_compute; congruence.
Qed.

Example C11_nonvacuous_open :
  let s1 := trun (ex_pre ++ TOpen :: ex_body) in
  (* outside: the base, at the current sequence number and at both snapshots *)
  h_seq (ts_h s1) = 2%N /\ h_snaps (ts_h s1) = [2; 2]%N /\
  out_get bytewise kp s1 [7]%N 2 = Some [1]%N /\ out_get bytewise kp s1 [8]%N 2 = Some [2]%N /\
  out_get bytewise kp s1 [9]%N 2 = None /\
  (* inside: the overlay *)
  txn_get bytewise kp s1 [7]%N = None /\ txn_get bytewise kp s1 [8]%N = Some [4]%N /\
  txn_get bytewise kp s1 [9]%N = Some [3]%N /\
  option_map t_seq (ts_txn s1) = Some 5%N /\
  body_writes ex_body = [(0, [7], []); (1, [9], [3]); (1, [8], [4])]%N.
Proof. repeat split; vm_compute; reflexivity. Qed.

Example C11_nonvacuous_commit :
  let s2 := trun ((ex_pre ++ TOpen :: ex_body) ++ [TCommit true]) in
  h_seq (ts_h s2) = 5%N /\ ts_txn s2 = None /\
  out_get bytewise kp s2 [7]%N 5 = None /\ out_get bytewise kp s2 [8]%N 5 = Some [4]%N /\
  out_get bytewise kp s2 [9]%N 5 = Some [3]%N /\
  (* the snapshots taken before and during the transaction still show the base *)
  out_get bytewise kp s2 [7]%N 2 = Some [1]%N /\ out_get bytewise kp s2 [9]%N 2 = None.
Proof. repeat split; vm_compute; reflexivity. Qed.

Example C11_nonvacuous_discard :
  trun ((ex_pre ++ TOpen :: ex_body) ++ [TDiscard]) = trun (ex_pre ++ [TOut HSnap]) /\
  trun ((ex_pre ++ TOpen :: ex_body) ++ [TClose]) = trun (ex_pre ++ [TOut HSnap]) /\
  body_outside ex_body = [TOut HSnap].
Proof. repeat split; vm_compute; reflexivity. Qed.

Example C11_nonvacuous_big_batch :
  let recs := [(1, [7], [5]); (0, [8], [])]%N in
  out_get bytewise kp (trun (ex_pre ++ [TBigWrite recs true])) [8]%N 4 = None /\
  out_get bytewise kp (trun (ex_pre ++ [TBigWrite recs true])) [7]%N 4 = Some [5]%N /\
  trun (ex_pre ++ [TBigWrite recs false]) = trun ex_pre.
Proof. repeat split; vm_compute; reflexivity. Qed.

(* a dumped-state shaped layout: private buffer (9,seq 5), private table (7 deleted seq 3; 8->4 seq 4),
   shared level 0 (7->1 seq 1; 8->2 seq 2) *)
Definition ex_en (k s kd v : N) : entry := {| e_uk := [k]; e_seq := s; e_kind := kd; e_val := [v] |}.
Definition ex_st : lstate :=
  {| st_mem := []; st_frozen := [];
     st_aux := [ {| t_num := 12; t_entries := [ex_en 7 3 0 0; ex_en 8 4 1 4] |} ];
     st_levels := [ [ {| t_num := 10; t_entries := [ex_en 7 1 1 1; ex_en 8 2 1 2] |} ] ] |}.
Example C11_nonvacuous_layout :
  txn_layout_okb bytewise kp 2 5 [ex_en 9 5 1 3] ex_st = true /\
  api_of (txn_lsm_get bytewise kp [ex_en 9 5 1 3] ex_st [7]%N 5) = None /\
  api_of (txn_lsm_get bytewise kp [ex_en 9 5 1 3] ex_st [8]%N 5) = Some [4]%N /\
  api_of (txn_lsm_get bytewise kp [ex_en 9 5 1 3] ex_st [9]%N 5) = Some [3]%N /\
  api_of (lsm_get bytewise kp (outside_of ex_st) [7]%N 2) = Some [1]%N /\
  api_of (lsm_get bytewise kp ex_st [7]%N 2) = Some [1]%N.
Proof. repeat split; vm_compute; reflexivity. Qed.

(* Transactions at BYTE level (Lsm/TxnBytes.v: db_transaction.go branch by branch over the byte-level DB state of
   property C01 — memdb arrays, table files as bytes —, the manifest record codec of property C04, the batch
   codec of C01; proofs: Lsm/TxnBytesProofs.v, Lsm/TxnManifestProofs.v).
   What the environment contributes is an argument of each operation and universally quantified here: the heights
   memdb.Put draws, the table FILE a private flush wrote or its failure, capacities, the outcome of every manifest
   attempt of a Commit (ok / failed, record in the file or not, manifest too big), background reorganisations.
   Contract assumed of the table writer (bop_pre: flush_ok; C13's writer theorems; evaluated at every flush
   observed on the implementation): the file passes the format check and holds exactly the memdb's pairs.
   The machine is the REPAIRED code (a failed Commit leaves db.seq alone; Discard consumes the numbers): the
   behaviour before that repair is the refuted statement at the end.
   ==================================================================================================== *)
From GL Require Import Codec.Table Codec.TableCheck Codec.TblCrc Lsm.ReadPath Lsm.ReadPathMem Lsm.ReadPathProofs Lsm.ReorgProofs Lsm.CertProofs
  Lsm.IterPath Lsm.IterPathProofs Gen.Inst Gen.InstTbl Gen.InstMem Gen.BloomInst Gen.ConstsOkMem Gen.InstRecordOk.
From GL Require Import Lsm.TxnBytes Lsm.TxnBytesProofs Lsm.TxnManifestProofs.
From GL Require Mem.MemDB Codec.Batch Codec.SessionRecord Codec.SessionRecordSpec Iter.Cursor Iter.DBIter
  Store.Crash Store.Faults Store.FaultsProofs Props.C01.
From Coq Require Import ZArith.

(* (9) C11_txn_bytes_refines.  The byte-level transaction machine refines the history-level machine of Lsm/Txn.v
   (extended by the sequence-number skip of a discarded failed commit, see (16)): for EVERY operation sequence —
   OpenTransaction, Put / Delete / Write with private flushes wherever the memdb is full (and failing flushes),
   iterators held across flushes (the memdb is then replaced, not reset), Commit with any outcomes of its three
   manifest attempts, Discard, background reorganisations — the relation wrel (same sequence number, same stored
   entries, the open transaction holds exactly the records APPLIED so far stamped above db.seq: the abstraction of
   private memdb + private tables to t_writes) and the invariants of the byte world (winv: C14's invariant of the
   private memdb, the format check of every private table, every private entry with its own sequence number in
   (db.seq, tr.seq], tables older than the memdb) are kept; the history-level steps are abs_run: the records a
   call applied, one commit step for a successful Commit, nothing for a failed one. *)
Theorem C11_txn_bytes_refines :
  forall c, comparer_ok c -> forall p, kparams_ok p -> (keyTypeSeek p <= keyTypeVal p)%N ->
  forall mp, MemDB.mparams_ok mp ->
  forall tp crc decompress fname ufc verify ri rp ops w s,
  wrel c mp tp crc decompress fname ufc verify ri w s ->
  winv c p mp tp crc decompress fname ufc verify ri w ->
  bops_pre c p mp tp crc decompress fname ufc verify ri rp w ops ->
  wrel c mp tp crc decompress fname ufc verify ri (brun_from c p mp rp false w ops)
       (xrun s (abs_run c p mp tp crc decompress fname ufc verify ri rp w ops)) /\
  winv c p mp tp crc decompress fname ufc verify ri (brun_from c p mp rp false w ops).
Proof.
  intros c ok p pok sv mp mpok tp crc decompress fname ufc verify ri rp ops w s.
  exact (brun_refines c ok p pok sv mp mpok tp crc decompress fname ufc verify ri rp ops w s).
Qed.
Print Assumptions C11_txn_bytes_refines.

(* ... one step at a time (the statement the induction uses) *)
Theorem C11_txn_bytes_step_refines :
  forall c, comparer_ok c -> forall p, kparams_ok p -> (keyTypeSeek p <= keyTypeVal p)%N ->
  forall mp, MemDB.mparams_ok mp ->
  forall tp crc decompress fname ufc verify ri rp w s o,
  wrel c mp tp crc decompress fname ufc verify ri w s ->
  winv c p mp tp crc decompress fname ufc verify ri w ->
  bop_pre c p mp tp crc decompress fname ufc verify ri rp w o ->
  step_ok c p mp tp crc decompress fname ufc verify ri rp w s o.
Proof.
  intros c ok p pok sv mp mpok tp crc decompress fname ufc verify ri rp w s o.
  exact (bstep_refines c ok p pok sv mp mpok tp crc decompress fname ufc verify ri rp w s o).
Qed.
Print Assumptions C11_txn_bytes_step_refines.

(* (10) C11_txn_get_bytes.  Transaction.Get computed on the BYTES — DB.get(tr.mem, tr.tables, key, tr.seq): the
   private memdb's arrays first, the DB's memdbs, the private table files walked as "level -1" in front of the
   version's files — returns, in every state the machine reaches (winv), the base at open overlaid with the
   records applied so far; [m] is any plain map that answers the reads of the shared state at db.seq (by
   C01_get_is_map_bytes the map of the committed writes).  No panic, no error, fuel suffices. *)
Theorem C11_txn_get_bytes :
  forall c, comparer_ok c -> forall p, kparams_ok p -> (keyTypeSeek p <= keyTypeVal p)%N ->
  forall mp, MemDB.mparams_ok mp ->
  forall tp crc decompress fname ufc verify ri w t wr m k,
  winv c p mp tp crc decompress fname ufc verify ri w -> tw_tr w = Some t ->
  applied_rel c mp tp crc decompress fname ufc verify ri (tw_seq w) wr t ->
  (forall k', History.res p (newest c k' (tw_seq w) (all_entries (abs c mp tp crc decompress fname ufc verify ri (tw_db w))) None) =
              a_get c k' m) ->
  wf_bytes k ->
  option_map bapi (t_get c p mp tp crc decompress fname ufc verify w k) =
  Some (Some (a_get c k (fold_left (a_apply c p) wr m))).
Proof.
  intros c ok p pok sv mp mpok tp crc decompress fname ufc verify ri w t wr m k.
  exact (txn_get_overlay c ok p pok sv mp mpok tp crc decompress fname ufc verify ri w t wr m k).
Qed.
Print Assumptions C11_txn_get_bytes.

(* ... and both kinds of read, computed on the bytes, are the reads of the related history-level state: the
   theorems (1)-(7) about out_get / txn_get hold of DB.Get and Transaction.Get as computed on bytes *)
Theorem C11_reads_refine_bytes :
  forall c, comparer_ok c -> forall p, kparams_ok p -> (keyTypeSeek p <= keyTypeVal p)%N ->
  forall mp, MemDB.mparams_ok mp ->
  forall tp crc decompress fname ufc verify ri w s k,
  wrel c mp tp crc decompress fname ufc verify ri w s ->
  winv c p mp tp crc decompress fname ufc verify ri w -> wf_bytes k ->
  (forall q, (q <= keyMaxSeq p)%N ->
     bapi (o_get c p mp tp crc decompress fname ufc verify w k q) = Some (out_get c p s k q)) /\
  (tw_tr w <> None ->
     option_map bapi (t_get c p mp tp crc decompress fname ufc verify w k) = Some (Some (txn_get c p s k))).
Proof.
  intros c ok p pok sv mp mpok tp crc decompress fname ufc verify ri w s k.
  exact (reads_refine c ok p pok sv mp mpok tp crc decompress fname ufc verify ri w s k).
Qed.
Print Assumptions C11_reads_refine_bytes.

(* (11) C11_txn_iter_bytes.  Transaction.NewIterator computed on the bytes (Lsm/IterPath.v with auxm = tr.mem,
   auxt = tr.tables): for every range and every call sequence the reference cursor over the live pairs at tr.seq
   of everything the transaction consults; and those pairs are exactly the (key, value) Transaction.Get finds. *)
Theorem C11_txn_iter_bytes :
  forall c, comparer_ok c -> forall p, kparams_ok p -> (keyTypeSeek p <= keyTypeVal p)%N ->
  forall mp, MemDB.mparams_ok mp ->
  forall tp crc decompress fname ufc verify ri strict w t slice fuel ms,
  winv c p mp tp crc decompress fname ufc verify ri w -> tw_tr w = Some t -> bs_mem (tw_db w) <> None ->
  range_wf slice -> Forall umove_wf ms ->
  (length (all_entries (txn_state c mp tp crc decompress fname ufc verify ri t (tw_db w))) < fuel)%nat ->
  t_iter c p mp tp crc decompress fname ufc verify strict fuel w slice ms =
    Some (Some (Cursor.run_cursor (cmp c) (range_view c slice
                  (DBIter.live_pairs c p (tt_seq t)
                     (db_entries c mp tp crc decompress fname ufc verify ri (Some (tt_mem t)) (tt_tables t) (tw_db w)))) ms)) /\
  (forall u v, wf_bytes u ->
     (In (u, v) (DBIter.live_pairs c p (tt_seq t)
                   (db_entries c mp tp crc decompress fname ufc verify ri (Some (tt_mem t)) (tt_tables t) (tw_db w))) <->
      t_get c p mp tp crc decompress fname ufc verify w u = Some (BRes (GFound v)))).
Proof.
  intros c ok p pok sv mp mpok tp crc decompress fname ufc verify ri strict w t slice fuel ms.
  exact (txn_iter_bytes c ok p pok sv mp mpok tp crc decompress fname ufc verify ri strict w t slice fuel ms).
Qed.
Print Assumptions C11_txn_iter_bytes.

(* (12) C11_outside_unaffected_bytes.  What DB.Get / Snapshot.Get are computed from — the DB's memdbs, the version,
   db.seq — is not touched by any operation of the open transaction (Put, Delete, Write, flushes, iterators), nor
   by a Commit that fails; the private tables are not an argument of an outside read at all. *)
Theorem C11_outside_unaffected_bytes :
  forall c p mp tp crc decompress fname ufc verify rp w o,
  (txn_local o = true \/ (exists fo atts, o = BCommit fo atts /\ snd (bstep c p mp rp false w o) <> TOk)) ->
  tw_db (fst (bstep c p mp rp false w o)) = tw_db w /\ tw_seq (fst (bstep c p mp rp false w o)) = tw_seq w /\
  forall k q, o_get c p mp tp crc decompress fname ufc verify (fst (bstep c p mp rp false w o)) k q =
              o_get c p mp tp crc decompress fname ufc verify w k q.
Proof.
  intros c p mp tp crc decompress fname ufc verify rp w o.
  exact (outside_unaffected c p mp tp crc decompress fname ufc verify rp w o).
Qed.
Print Assumptions C11_outside_unaffected_bytes.

(* ... and inside the commit window (the private tables already sit in level 0 of the version, db.seq is not
   yet set) a read at any sequence number up to db.seq, computed on the bytes of the NEW version, is the read
   computed before the commit *)
Theorem C11_commit_window_bytes :
  forall c, comparer_ok c -> forall p, kparams_ok p -> (keyTypeSeek p <= keyTypeVal p)%N ->
  forall mp, MemDB.mparams_ok mp ->
  forall tp crc decompress fname ufc verify ri w t k q,
  sinv c p mp tp crc decompress fname ufc verify ri w ->
  tinv c p mp tp crc decompress fname ufc verify ri (tw_seq w) t -> tt_tables t <> [] -> wf_bytes k -> (q <= tw_seq w)%N ->
  db_get_bytes c p mp tp crc decompress fname ufc verify (installed (tw_db w) (tt_tables t)) k q =
  db_get_bytes c p mp tp crc decompress fname ufc verify (tw_db w) k q.
Proof.
  intros c ok p pok sv mp mpok tp crc decompress fname ufc verify ri w t k q.
  exact (commit_window_bytes c ok p pok sv mp mpok tp crc decompress fname ufc verify ri w t k q).
Qed.
Print Assumptions C11_commit_window_bytes.

(* (13) C11_commit_is_one_record.  tr.rec holds, in every state the machine reaches, the private tables as
   level-0 additions and nothing else a record writes (C11_rec_inv_reachable).  An attempt of Commit that goes
   through flushManifest and succeeds appends exactly ONE record to the manifest; decoded by the manifest codec
   (Codec/SessionRecord.v) it is the record built from next-file-num, seq-num = tr.seq and the private tables at
   level 0 ... *)
Theorem C11_rec_inv_reachable : forall c kp mp rp, SessionRecordSpec.rparams_ok rp -> forall sof w o,
  wrec_inv rp w -> wrec_inv rp (fst (bstep c kp mp rp sof w o)).
Proof. exact bstep_rec_inv. Qed.
Print Assumptions C11_rec_inv_reachable.

Theorem C11_commit_is_one_record : forall rp, SessionRecordSpec.rparams_ok rp -> forall w t a lvls,
  rec_inv rp t -> (tw_mfail w || ai_rot a) = false -> ai_ok a = true ->
  SessionRecordSpec.fields_ok (commit_fields (map (at_of 0) (tt_tables t)) (tt_seq t) (ai_nf a)) ->
  exists b w' r',
    session_commit rp w (SessionRecord.set_seq rp (tt_rec t) (tt_seq t)) (Some (tt_seq t)) lvls a = Some (w', r', true) /\
    tw_man w' = tw_man w ++ [b] /\
    SessionRecord.decode rp SessionRecord.sr_empty b =
      SessionRecord.DOk (SessionRecordSpec.build rp (commit_fields (map (at_of 0) (tt_tables t)) (tt_seq t) (ai_nf a))).
Proof. exact commit_appends_one_record. Qed.
Print Assumptions C11_commit_is_one_record.

(* ... and replayed by session.recover's model behind ANY manifest (C04_manifest_replay) it changes exactly this:
   the sequence number becomes tr.seq, the next file number the one it carries, and — for file numbers that are
   new at level 0 — the live tables are the old ones plus exactly the private tables *)
Theorem C11_commit_record_replay : forall rp, SessionRecordSpec.rparams_ok rp ->
  forall strict cmp recs rs b adds seq nf j pj nf0 q live cps,
  Forall2 (fun b r => SessionRecord.decode rp SessionRecord.sr_empty b = SessionRecord.DOk r) recs rs ->
  SessionRecord.decode rp SessionRecord.sr_empty b = SessionRecord.DOk (SessionRecordSpec.build rp (commit_fields adds seq nf)) ->
  SessionRecordSpec.replay_result rp cmp rs = SessionRecordSpec.SpecOk j pj nf0 q live cps ->
  SessionRecordSpec.agrees (SessionRecord.session_recover rp strict cmp (recs ++ [b]))
    (SessionRecordSpec.SpecOk j pj nf seq (fold_left SessionRecordSpec.live_add adds live) cps) /\
  (adds_fresh live adds -> Forall (fun a => SessionRecord.at_level a = 0%Z) adds ->
   forall x, In x (fold_left SessionRecordSpec.live_add adds live) <-> In x adds \/ In x live).
Proof.
  intros rp pok strict cmp recs rs b adds seq nf j pj nf0 q live cps HF Hb Hr. split.
  - destruct (commit_crash_atomic rp pok strict cmp recs rs b adds seq nf j pj nf0 q live cps (S (length recs)) HF Hb Hr)
      as [(Hk & _)|(_ & E & A)]; [exfalso; apply (Nat.nle_succ_diag_l _ Hk)|]. rewrite <- E. exact A.
  - intros Hf Hl. exact (live_adds_fresh adds live Hf Hl).
Qed.
Print Assumptions C11_commit_record_replay.

(* (14) C11_commit_crash_atomic.  A crash leaves a prefix of the manifest file's bytes, hence (C04_byte_cut_is_record_image:
   a torn record is never delivered) a prefix of its records.  For EVERY such prefix recovery either replays a
   prefix of the manifest as it was BEFORE the commit — the transaction's record is not read: wholly out — or the
   whole manifest with the record: sequence number tr.seq and ALL private tables live: wholly in.  Interface
   hypotheses, explicit: the records before the commit decode (rs), the commit's record decodes to the record of
   (13), the manifest before the commit replays (SpecOk). *)
Theorem C11_commit_crash_atomic : forall rp, SessionRecordSpec.rparams_ok rp ->
  forall strict cmp recs rs b adds seq nf j pj nf0 q live cps k,
  Forall2 (fun b r => SessionRecord.decode rp SessionRecord.sr_empty b = SessionRecord.DOk r) recs rs ->
  SessionRecord.decode rp SessionRecord.sr_empty b = SessionRecord.DOk (SessionRecordSpec.build rp (commit_fields adds seq nf)) ->
  SessionRecordSpec.replay_result rp cmp rs = SessionRecordSpec.SpecOk j pj nf0 q live cps ->
  let img := firstn k (recs ++ [b]) in
  ((k <= length recs)%nat /\ img = firstn k recs /\
     SessionRecordSpec.agrees (SessionRecord.session_recover rp strict cmp img) (SessionRecordSpec.replay_result rp cmp (firstn k rs))) \/
  ((length recs < k)%nat /\ img = recs ++ [b] /\
     SessionRecordSpec.agrees (SessionRecord.session_recover rp strict cmp img)
       (SessionRecordSpec.SpecOk j pj nf seq (fold_left SessionRecordSpec.live_add adds live) cps)).
Proof. exact commit_crash_atomic. Qed.
Print Assumptions C11_commit_crash_atomic.

(* ... composed with the fault model of property C08 (Store/Faults.v: FTxnBegin / FTxnCommit / FTxnCommitFail /
   FTxnDiscard; the transaction is ONE batch of n records there): after ANY history of succeeding and failing
   steps, a Commit that returns nil in a state with the transaction open on an idle journal acknowledges the
   transaction's batch, and (C08_faults_safe) every later crash image or clean reopen, whatever fails afterwards,
   recovers it — whole, batches being the atoms. *)
Theorem C11_commit_durable_under_faults : forall ops n fl later img L,
  let s := Faults.frun ops in
  Faults.f_txn s = Some (n, fl) -> n <> 0%N -> Faults.f_mfail s = false -> Faults.f_pend s = false ->
  Crash.p_frozen (Faults.f_p s) = None -> Crash.j_recs (Crash.p_live (Faults.f_p s)) = [] ->
  let s' := Faults.frun ((ops ++ [Faults.FTxnCommit]) ++ later) in
  Crash.is_image (Faults.f_p s') img -> Faults.sublist L (Crash.recover img) ->
  (forall b, In b (Crash.recover img) -> ~ In b L -> In b (Faults.f_unknown s')) ->
  Faults.fres s Faults.FTxnCommit = Faults.ROk /\
  In {| Crash.b_seq := Crash.p_seq (Faults.f_p s) + 1; Crash.b_n := n |} L.
Proof.
  intros ops n fl later img L s Ht Hn Hmf Hpe Hfr Hlv s' Himg Hsub Hunk.
  assert (Hack : In {| Crash.b_seq := Crash.p_seq (Faults.f_p s) + 1; Crash.b_n := n |}
                    (Crash.p_acked (Faults.f_p (Faults.fstep s Faults.FTxnCommit)))).
  { unfold Faults.fstep. rewrite Ht, Hmf, Hpe. unfold Faults.committed. cbn [Faults.f_p]. unfold Crash.pstep.
    rewrite Hfr, Hlv. apply N.eqb_neq in Hn. rewrite Hn. cbn [Crash.p_acked]. apply in_or_app. right. left. reflexivity. }
  split.
  - unfold Faults.fres. rewrite Ht, Hmf, Hpe. reflexivity.
  - destruct (FaultsProofs.faults_safe ((ops ++ [Faults.FTxnCommit]) ++ later) img L Himg Hsub Hunk) as (Hacked & _).
    assert (Eapp : forall a b, Faults.frun (a ++ b) = Faults.frun_from (Faults.frun a) b)
      by (intros a b; unfold Faults.frun, Faults.frun_from; apply fold_left_app).
    apply Hacked. unfold s'. rewrite Eapp. apply (FaultsProofs.acked_monotone_run _ later); [apply FaultsProofs.finv_run|].
    rewrite Eapp. unfold Faults.frun_from. cbn [fold_left]. exact Hack.
Qed.
Print Assumptions C11_commit_durable_under_faults.

(* (15) C11_failed_write_partial.  What a Transaction.Write that returned an error leaves: exactly a proper PREFIX of
   the batch applied — the records before the one whose private flush failed (the table file could not be written);
   the transaction stays open and consistent (winv), holds the earlier records plus that prefix, its later reads
   see the prefix ((10) with wr ++ prefix) and a later successful Commit publishes it with everything else ((9):
   the commit step of the history machine writes all records held).  This is NOT a violation of the property as
   written: atomicity is Commit's (all records the transaction holds become visible at once, or none), the caller
   of the failed Write got an error and decides — Discard, or go on and Commit; the oversized DB.Write, the only
   place where goleveldb itself wraps a batch in a transaction, discards (C11_large_batch_all_or_nothing). *)
Theorem C11_failed_write_partial :
  forall c, comparer_ok c -> forall p, kparams_ok p -> (keyTypeSeek p <= keyTypeVal p)%N ->
  forall mp, MemDB.mparams_ok mp ->
  forall tp crc decompress fname ufc verify ri rp w t wr b os recs,
  winv c p mp tp crc decompress fname ufc verify ri w -> tw_tr w = Some t ->
  applied_rel c mp tp crc decompress fname ufc verify ri (tw_seq w) wr t ->
  Batch.batch_records b = Some recs -> Batch.batch_len b <> 0%N ->
  puts_pre c p mp tp crc decompress fname ufc verify ri rp t recs os ->
  let '(w', r) := w_write c p mp rp w b os in
  exists t' post, recs = applied c p mp rp t recs os ++ post /\ tw_tr w' = Some t' /\
    tw_db w' = tw_db w /\ tw_seq w' = tw_seq w /\ tt_closed t' = false /\
    tinv c p mp tp crc decompress fname ufc verify ri (tw_seq w) t' /\
    applied_rel c mp tp crc decompress fname ufc verify ri (tw_seq w) (wr ++ applied c p mp rp t recs os) t' /\
    match r with
    | TOk => post = []
    | TErr e => e = ETable /\ post <> []
    | _ => False
    end.
Proof.
  intros c ok p pok sv mp mpok tp crc decompress fname ufc verify ri rp w t wr b os recs.
  exact (failed_write_partial c ok p pok sv mp mpok tp crc decompress fname ufc verify ri rp w t wr b os recs).
Qed.
Print Assumptions C11_failed_write_partial.

(* (16) The sequence-number skip of a discarded failed commit is unobservable: no stored entry carries the skipped
   numbers, so every read of the history-level state, at every sequence number, is unchanged (and so is what
   was ever written). *)
Theorem C11_seq_skip_unobservable : forall c p s d k q,
  out_get c p (x_skip s d) k q = out_get c p s k q /\ h_hist (ts_h (x_skip s d)) = h_hist (ts_h s) /\
  ts_txn (x_skip s d) = ts_txn s.
Proof. intros. repeat split. Qed.
Print Assumptions C11_seq_skip_unobservable.

(* (17) REFUTED: the code after the repair 50c909c and before the one that followed it set db.seq := tr.seq as soon as a
   commit attempt failed, while the transaction stays open and may be committed by a retry.  A snapshot taken in
   between is pinned at tr.seq, which covers every sequence number of the transaction: once the retry installs the
   tables the snapshot shows the transaction's writes — its view changes, and it shows writes of a transaction
   that was not committed when it was taken.  Witness at the history level (the hypothesis q <= h_seq h of
   C11_commit_window_unobservable is exactly what that code broke): base 7 -> 1 at seq 1; the transaction
   overwrites 7 at seq 2; after the failed attempt h_seq = 2; the snapshot at 2 reads 1 before the retry
   installs the tables and 9 after. *)
Definition ex_h_failed : hstate :=
  {| h_seq := 2; h_store := [ex_en 7 1 1 1]; h_snaps := [2%N]; h_hist := [ex_en 7 1 1 1] |}.
Definition ex_t_failed : txn := {| t_seq := 2; t_writes := [ex_en 7 2 1 9] |}.
Theorem C11_failed_commit_publishes_seq_refuted :
  store_get bytewise kp ex_h_failed [7]%N 2 = Some [1]%N /\
  store_get bytewise kp (publish_version ex_h_failed ex_t_failed) [7]%N 2 = Some [9]%N /\
  (* with db.seq left alone (the repaired code) the snapshot is pinned at 1 and keeps reading 1 *)
  store_get bytewise kp (publish_version {| h_seq := 1; h_store := [ex_en 7 1 1 1]; h_snaps := [1%N]; h_hist := [ex_en 7 1 1 1] |}
                                          ex_t_failed) [7]%N 1 = Some [1]%N.
Proof. repeat split; vm_compute; reflexivity. Qed.
Print Assumptions C11_failed_commit_publishes_seq_refuted.

(* Non-vacuity of the byte-level theorems: a concrete world.
   The DB is C01's example state (three table files written by goleveldb: level 0 = files 8 and 5, level 1 = file 4)
   with an empty write buffer, db.seq = 13.  OpenTransaction; Put a; Delete c; the reads; Commit: its flush writes
   a table with the MODEL writer of property C13 (Codec/Table.v twrite) from the private memdb's pairs — the file
   satisfies the writer's contract flush_ok by computation —, one manifest attempt, successful.  Every hypothesis
   of the theorems above holds of this run (winv of the initial world, bops_pre of the operation sequence), and the
   machine, evaluated, reads: inside a = the Put, c deleted, b from level 1, d absent; outside meanwhile the base;
   after Commit everyone reads the overlay at db.seq = 15 and the base at the old sequence number 13; the manifest
   holds ONE record. *)
Definition exb_db : bstate := mkBS (mem_of bytewise mp []) None [[C01.ex_file8; C01.ex_file5]; [C01.ex_file4]].
Definition exb_w0 : tworld := mkTW exb_db 13 [] false 3%Z 13 [99]%N [] None [].
Definition exb_ufc : bytes -> N -> bytes -> bool := bloom_ufc bp (BinInt.Z.of_N 10).
Definition exb_in (h : N) : put_in := mkPI h FlErr 4096.
Definition exb_ops3 : list bop :=
  [BOpen 4096; BPut (keyTypeVal kp) [97]%N [1; 2]%N (exb_in 1); BPut (keyTypeDel kp) [99]%N [] (exb_in 2)].
Definition exb_w3 : tworld := brun_from bytewise kp mp rp false exb_w0 exb_ops3.
Definition exb_pairs : list (bytes * bytes) := match tw_tr exb_w3 with Some t => mem_pairs mp (tt_mem t) | None => [] end.
Definition exb_file : tfile :=
  match twrite tblp tbl_crc (fun x => x) (ibc bytewise) 4096 2 false None exb_pairs with
  | Some f => mkTF 9 (fst (hd ([], []) exb_pairs)) (fst (last exb_pairs ([], []))) f
  | None => no_tfile
  end.
Definition exb_commit : bop := BCommit (FlOk exb_file 4096) [mkAI true false false 10%Z].
Definition exb_w4 : tworld := fst (bstep bytewise kp mp rp false exb_w3 exb_commit).
Definition exb_tget (w : tworld) (k : N) :=
  option_map bapi (t_get bytewise kp mp tblp tbl_crc C01.ex_nodec None exb_ufc true w [k]).
Definition exb_oget (w : tworld) (k s : N) := bapi (o_get bytewise kp mp tblp tbl_crc C01.ex_nodec None exb_ufc true w [k] s).

Lemma exb_winv : winv bytewise kp mp tblp tbl_crc C01.ex_nodec None exb_ufc true 2 exb_w0.
Proof.
  set (A := abs bytewise mp tblp tbl_crc C01.ex_nodec None exb_ufc true 2 exb_db).
  assert (H : wf_fullb bytewise kp A && uniqb (all_entries A) && forallb (fun x => (e_seq x <=? 13)%N) (all_entries A) = true)
    by (vm_compute; reflexivity).
  apply andb_prop in H as [H B]. apply andb_prop in H as [W U].
  split; [|exact I]. constructor; cbn [exb_w0 tw_db tw_seq].
  - constructor.
    + intros d H. split.
      * apply (mem_of_inv bytewise bytewise_ok mp mp_ok [] d); [constructor|exact H].
      * cbn [bs_mem exb_db] in H. assert (K : match mem_of bytewise mp [] with Some d => mem_keys_okb kp mp d | None => false end = true)
          by (vm_compute; reflexivity). rewrite H in K. exact K.
    + intros d H. discriminate.
    + exact (C01.ex_files_ok None (or_intror eq_refl)).
    + exact (wf_fullb_sound bytewise bytewise_ok kp A W).
  - reflexivity.
  - vm_compute. reflexivity.
  - intros x Hx. rewrite forallb_forall in B. apply N.leb_le. exact (B x Hx).
  - exact (uniqb_uniq_in _ U).
  - vm_compute. discriminate.
Qed.

Example C11_bytes_nonvacuous :
  winv bytewise kp mp tblp tbl_crc C01.ex_nodec None exb_ufc true 2 exb_w0 /\
  bops_pre bytewise kp mp tblp tbl_crc C01.ex_nodec None exb_ufc true 2 rp exb_w0 (exb_ops3 ++ [exb_commit]) /\
  (* inside: the overlay; outside meanwhile: the base *)
  map (exb_tget exb_w3) [97; 98; 99; 100]%N =
    [Some (Some (Some [1; 2])); Some (Some (Some [98; 49])); Some (Some None); Some (Some None)]%N /\
  map (fun k => exb_oget exb_w3 k 13) [97; 98; 99]%N = [Some None; Some (Some [98; 49]); Some (Some [99; 51])]%N /\
  option_map tt_seq (tw_tr exb_w3) = Some 15%N /\ tw_seq exb_w3 = 13%N /\
  (* Commit: everyone reads the overlay at the new sequence number, the base at the old one; one record *)
  snd (bstep bytewise kp mp rp false exb_w3 exb_commit) = TOk /\ tw_seq exb_w4 = 15%N /\ tw_tr exb_w4 = None /\
  map (fun k => exb_oget exb_w4 k 15) [97; 98; 99]%N = [Some (Some [1; 2]); Some (Some [98; 49]); Some None]%N /\
  map (fun k => exb_oget exb_w4 k 13) [97; 98; 99]%N = [Some None; Some (Some [98; 49]); Some (Some [99; 51])]%N /\
  length (tw_man exb_w4) = 1%nat.
Proof.
  split; [exact exb_winv|]. split.
  - cbn [app exb_ops3 bops_pre bop_pre]. split; [exact I|]. split.
    { vm_compute. repeat split; auto; discriminate. }
    split.
    { vm_compute. repeat split; auto; discriminate. }
    split; [|exact I].
    change (fst (bstep bytewise kp mp rp false (fst (bstep bytewise kp mp rp false (fst (bstep bytewise kp mp rp false exb_w0 (BOpen 4096)))
              (BPut (keyTypeVal kp) [97]%N [1; 2]%N (exb_in 1)))) (BPut (keyTypeDel kp) [99]%N [] (exb_in 2)))) with exb_w3.
    assert (E : exists t, tw_tr exb_w3 = Some t /\ tfile_okb bytewise kp tblp tbl_crc C01.ex_nodec None exb_ufc true 2 exb_file = true /\
                          tf_pairs bytewise tblp tbl_crc C01.ex_nodec None exb_ufc true 2 exb_file = mem_pairs mp (tt_mem t)).
    { eexists. split; [vm_compute; reflexivity|]. split; vm_compute; reflexivity. }
    destruct E as (t & Et & E1 & E2). cbn [bop_pre exb_commit]. rewrite Et. split; assumption.
  - vm_compute. repeat split; reflexivity.
Qed.
