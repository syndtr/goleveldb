(* Props/C05.v — property C05: concurrent use is linearizable; readers see consistent cuts.
   Each theorem is closed by a lemma of Conc/ReadCutProofs.v and followed by Print Assumptions; the Example at
   the end collects the evaluated traces of that file.
   All statements quantify over EVERY finite sequence of actions of the LTS Conc/ReadCut.v from `init`
   (any number of writers, transactions, flushes, compactions, readers; any interleaving of their atomic steps). *)
From GL Require Import Base.Order Codec.IKey Codec.BytesCmp Codec.BytesCmpProofs Lsm.Lsm Conc.ReadCut Conc.ReadCutProofs
  Gen.ConstsOk.

(* 1. read_cut.  Every answered read (a reader that fixed s, captured the buffers, then the version — with
      arbitrary other actions in between — and looked up k in buffers-then-version order) returned exactly the
      newest entry of k with seq <= s of the history: the state of the database at sequence number s.  That state
      is the same whether judged on the history now or on the history h0 at the reader's own ARSeq: everything
      written since is above s. *)
Theorem C05_read_cut : forall c, comparer_ok c -> forall p tr st,
  run c p init tr = Some st ->
  forall r s h0 k a, In (r, s, h0, k, a) (d_rlog st) ->
    a = spec c p (d_hist st) k s /\ a = spec c p h0 k s /\ (s <= d_seq st)%N /\
    exists tl, d_hist st = h0 ++ tl /\ forall e, In e tl -> (s < e_seq e)%N.
Proof. exact read_cut. Qed.
Print Assumptions C05_read_cut.

(* ... and (s, h0) are db.seq and the history at a single instant between the reader's call and return: the
   state in which its ARSeq was taken. *)
Theorem C05_read_instant : forall c, comparer_ok c -> forall p tr st,
  run c p init tr = Some st ->
  forall r s h0 k a, In (r, s, h0, k, a) (d_rlog st) ->
  exists tr1 tr2 st1, tr = tr1 ++ ARSeq r s :: tr2 /\ run c p init tr1 = Some st1 /\ d_seq st1 = s /\ d_hist st1 = h0.
Proof. exact read_instant. Qed.
Print Assumptions C05_read_instant.

(* The invariant behind read_cut, for readers still in flight (rinv): once a reader has the buffers, the
   captured buffers followed by the CURRENT version answer every key as the history does at s (flush installs
   before it drops; rewrites respect registered s; half-inserted groups and uncommitted transaction tables
   are above db.seq >= s); once it has the version too, the captured triple does. *)
Theorem C05_read_cut_inflight : forall c, comparer_ok c -> forall p tr st,
  run c p init tr = Some st -> forall r, rinv c p st r (d_rd st r).
Proof. exact read_cut_inflight. Qed.
Print Assumptions C05_read_cut_inflight.

(* The executable violation test (used by order_matters below) can never fire on the LTS of the code. *)
Theorem C05_no_violation : forall c, comparer_ok c -> forall p tr st,
  run c p init tr = Some st -> violation c p st = false.
Proof. exact no_violation. Qed.
Print Assumptions C05_no_violation.

(* The precondition of AInstallRewrite, as evaluated on observed compactions, means: minSeq is not above
   db.seq nor any registered sequence number, nothing is invented, and EVERY lookup at EVERY sequence number
   >= minSeq answers as before (what C03_compaction_preserves proves of the code's merge + drop rule). *)
Theorem C05_rewrite_check_sound : forall c, comparer_ok c -> forall p st m v',
  rewrite_okb c p st m v' = true -> rewrite_ok c p st m v'.
Proof. exact rewrite_okb_sound. Qed.
Print Assumptions C05_rewrite_check_sound.

(* 2. writes_linearize.  The publications (APublish = addSeq, ASetSeq = setSeq) are the linearisation points:
      (1) published groups tile (0, db.seq]; every entry written is in the group in progress or in exactly the
          group whose range holds its sequence number;
      (2) batch atomicity: every reader in flight and every answered read sees each group entirely or not at
          all, and nothing of the group in progress;
      (3) whoever sees any entry of a group sees every group published before it (a client's later write is
          never visible without its earlier ones);
      (4) real time: a reader whose ARSeq comes after a publication sees that whole group;
      (5) db.seq only grows. *)
Theorem C05_writes_linearize : forall c, comparer_ok c -> forall p tr st,
  run c p init tr = Some st ->
  (glchain (d_seq st) (d_glog st) /\
   (forall g e, In g (d_glog st) -> In e (g_es g) -> In e (d_hist st) /\ (g_lo g < e_seq e <= g_hi g)%N) /\
   (forall e, In e (d_pend st) -> In e (d_hist st) /\ (d_seq st < e_seq e)%N) /\
   (forall e, In e (d_hist st) -> In e (d_pend st) \/ exists g, In g (d_glog st) /\ In e (g_es g))) /\
  (forall r, r_ph (d_rd st r) <> PIdle ->
     (forall g, In g (d_glog st) -> all_vis (r_s (d_rd st r)) (g_es g) \/ none_vis (r_s (d_rd st r)) (g_es g)) /\
     none_vis (r_s (d_rd st r)) (d_pend st)) /\
  (forall r s h0 k a, In (r, s, h0, k, a) (d_rlog st) ->
     (forall g, In g (d_glog st) -> all_vis s (g_es g) \/ none_vis s (g_es g)) /\ none_vis s (d_pend st)) /\
  (forall gl1 g2 gl2 g1 s, d_glog st = gl1 ++ g2 :: gl2 -> In g1 gl2 ->
     (exists e, In e (g_es g2) /\ (e_seq e <= s)%N) -> all_vis s (g_es g1)) /\
  (forall r s st', step c p st (ARSeq r s) = Some st' ->
     s = d_seq st /\ forall g, In g (d_glog st) -> all_vis s (g_es g)) /\
  (forall tr' st', run c p st tr' = Some st' -> (d_seq st <= d_seq st')%N).
Proof. exact writes_linearize. Qed.
Print Assumptions C05_writes_linearize.

(* successive reads (of one client or of different ones) never go back in time *)
Theorem C05_reads_monotone : forall c, comparer_ok c -> forall p tr1 r1 s1 tr2 r2 s2 tr3 st,
  run c p init (tr1 ++ ARSeq r1 s1 :: tr2 ++ ARSeq r2 s2 :: tr3) = Some st -> (s1 <= s2)%N.
Proof. exact reads_monotone. Qed.
Print Assumptions C05_reads_monotone.

(* 3. order_matters.  The same LTS with ONE of the four publication orders reversed (stepv differs from step
      only in the two actions of the reversed pair: C05_alt_is_same_system) reaches a state in which an
      answered read differs from the state of the database at its sequence number. *)
Theorem C05_order_matters :
  (exists tr st, runv bytewise kp VReaderVersionFirst init tr = Some st /\ violation bytewise kp st = true) /\
  (exists tr st, runv bytewise kp VDropBeforeInstall init tr = Some st /\ violation bytewise kp st = true) /\
  (exists tr st, runv bytewise kp VPublishBeforeInsert init tr = Some st /\ violation bytewise kp st = true) /\
  (exists tr st, runv bytewise kp VSetSeqBeforeInstall init tr = Some st /\ violation bytewise kp st = true).
Proof. exact order_matters. Qed.
Print Assumptions C05_order_matters.

Theorem C05_alt_is_same_system : forall c p v st a,
  match v, a with
  | VReaderVersionFirst, (ARVersion _ | ARMems _) => True
  | VDropBeforeInstall, (ADropFrozen | AInstallTable _) => True
  | VPublishBeforeInsert, (APublish _ _ | AIns _ _) => True
  | VSetSeqBeforeInstall, (ASetSeq _ _ | ATxnInstall _ _) => True
  | _, _ => stepv c p v st a = step c p st a
  end.
Proof. exact stepv_agrees. Qed.
Print Assumptions C05_alt_is_same_system.

(* Non-vacuity.  Three executions in which the reader's steps are separated by a rotation, the flush's install,
   the drop, a concurrent group, a transaction commit and a compaction are accepted by the LTS with the right
   answers; the four wrong-order executions are refused by it (this is what trace inclusion detects) and violate
   read_cut in the alternative LTS.  comparer_ok is satisfiable (bytewise).  All three good executions end with every
   reader done (ARDone); a state with a reader in flight (r_ph <> PIdle: the premise of C05_read_cut_inflight's rinv and of
   clause (2) of C05_writes_linearize) is reached only by their proper prefixes (run is prefix-closed), which the Example
   does not list. *)
Example C05_nonvacuous :
  comparer_ok bytewise /\
  accepts bytewise kp tr_good1 = true /\ accepts bytewise kp tr_good2 = true /\ accepts bytewise kp tr_good3 = true /\
  violates VReaderVersionFirst tr_reader_swapped = true /\ accepts bytewise kp tr_reader_swapped = false /\
  violates VDropBeforeInstall tr_drop_first = true /\ accepts bytewise kp tr_drop_first = false /\
  violates VPublishBeforeInsert tr_publish_first = true /\ accepts bytewise kp tr_publish_first = false /\
  violates VSetSeqBeforeInstall tr_setseq_first = true /\ accepts bytewise kp tr_setseq_first = false.
Proof.
  split; [exact bytewise_ok|].
  destruct good_traces_accepted as [G1 [G2 G3]].
  destruct order_matters_witnesses as [A [B [C [D [A' [B' [C' D']]]]]]].
  repeat split; assumption.
Qed.
