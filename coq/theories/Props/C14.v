(* Props/C14.v — property C14: the in-memory buffer is an ordered map, safe under concurrent
   readers.  Each theorem is closed by a lemma of Mem/ (C14_layout_ok by Gen/ConstsOkMem.v) and
   followed by Print Assumptions; the two example programs at the end are evaluated in place.

   Model: Mem/MemDB.v (the array-encoded skip list as coded in leveldb/memdb/memdb.go).
   Reference: Mem/MemSpec.v (sorted association list + cursor over its visible part). *)
From GL Require Import Base.Order Codec.BytesCmp Codec.BytesCmpProofs Mem.MemDB Mem.MemSpec Mem.MemDBProofs
  Mem.MemConc Mem.MemConcProofs Mem.MemTotal Gen.ConstsOkMem.
Open Scope N_scope.

(* 0. The constants of the current source give the node layout the theorems assume. *)
Theorem C14_layout_ok : mparams_ok mp.
Proof. exact mp_ok. Qed.
Print Assumptions C14_layout_ok.

(* 1. memdb_refines_map.  For every lawful comparer, every layout satisfying mparams_ok, every
   program (any sequence of Put/Delete/Get/Find/Contains/Len/Size/used/Reset and of
   NewIterator/First/Last/Seek/Next/Prev on any number of iterators with any slices, writes and
   iterator movements interleaved at will) whose Puts carry heights in [1, tMaxHeight]: whenever
   the reference answers the program, the array model returns exactly the same outputs — in
   particular it never panics (no index outside an array) and never runs out of fuel.
   The reference declines (None) exactly the programs that call Next on an iterator whose
   current key was deleted after the iterator reached it (see Mem/MemSpec.v); those are covered by
   4 (C14_concurrent_readers_safe) and 5 (C14_model_never_panics) instead. *)
Theorem C14_memdb_refines_map :
  forall c, comparer_ok c -> forall p, mparams_ok p ->
  forall ops outs, heights_ok (tMaxHeight p) ops ->
    spec_run c ops = Some outs -> run c p ops = Ok outs.
Proof. exact refines. Qed.
Print Assumptions C14_memdb_refines_map.

(* the same for the layout constants of the current source *)
Theorem C14_memdb_refines_map_src :
  forall c, comparer_ok c ->
  forall ops outs, heights_ok (tMaxHeight mp) ops ->
    spec_run c ops = Some outs -> run c mp ops = Ok outs.
Proof. intros c ok. exact (refines c ok mp mp_ok). Qed.
Print Assumptions C14_memdb_refines_map_src.

(* 2. len_size_consistent.  After every such program Len is the number of keys of the reference
   map, Size the sum of their key and value lengths, and the reference map is strictly sorted. *)
Theorem C14_len_size_consistent :
  forall c, comparer_ok c -> forall p, mparams_ok p ->
  forall ops t outs, heights_ok (tMaxHeight p) ops ->
    spec_run_from c sp_init ops = Some (t, outs) ->
    exists d s,
      mdb_new p = Ok d /\ run_from c p {| st_db := d; st_its := [] |} ops = Ok (s, outs) /\
      mdb_len (st_db s) = Z.of_nat (length (sp_map t)) /\
      mdb_size (st_db s) = s_size (sp_map t) /\
      smap_sorted c (sp_map t).
Proof. exact len_size. Qed.
Print Assumptions C14_len_size_consistent.

(* 3. Fuel.  Under the representation invariant, fuel = live nodes + maxHeight makes every
   search return a value (not OutOfFuel, not Panic); that is the fuel every operation uses. *)
Theorem C14_search_fuel_suffices :
  forall c, comparer_ok c -> forall p, mparams_ok p ->
  forall d A L k prev fuel,
    Inv c (tMaxHeight p) d A L ->
    (length L + N.to_nat (maxHeight d) <= fuel)%nat ->
    (exists r, findGE c p fuel d k prev (prev_init p) = Ok r) /\
    (exists r, findLT c p fuel d k = Ok r) /\
    (exists r, findLast p fuel d = Ok r).
Proof. exact search_fuel_suffices. Qed.
Print Assumptions C14_search_fuel_suffices.

Theorem C14_op_fuel_is_bound :
  forall c p d A L, Inv c (tMaxHeight p) d A L -> op_fuel d = (length L + N.to_nat (maxHeight d))%nat.
Proof. exact op_fuel_is_bound. Qed.
Print Assumptions C14_op_fuel_is_bound.

(* 4. concurrent_readers_safe (array level).  Mem/MemConc.v: one writer whose Put/Delete are atomic
   (the code holds p.mu.Lock for the whole call) interleaved in any order with any number of
   readers, each of whose steps is one iterator call or one Get/Find/Contains (p.mu.RLock per
   call); iterators keep only node index, direction and the copied key/value between steps.
   For every such action sequence: no step panics (indexes outside the arrays) or runs out of
   fuel, and everything a reader sees satisfies obs_good: a valid iterator shows a pair that is
   in the writer's log (was stored at some time) and lies inside its slice; Next from a valid
   position yields a strictly larger key, Prev a strictly smaller one, Seek k a key >= k; Get/Find
   return logged pairs.  This holds also when the iterator's current key was deleted under it.
   Outside the statement: Reset while iterators exist, the Go memory model below the granularity
   of the two locks (checked by reading and by the stress runs of the harness). *)
Theorem C14_concurrent_readers_safe :
  forall c, comparer_ok c -> forall p, mparams_ok p ->
  forall acts, aheights_ok p acts ->
    exists obs, crun c p acts = Ok obs /\ Forall (obs_good c) obs.
Proof. exact conc_safe. Qed.
Print Assumptions C14_concurrent_readers_safe.

(* 5. The model never panics: on ANY sequential program with heights in range - also those the
   reference declines in 1 (Next on an iterator whose key was deleted under it) - every operation
   of the array model returns: no index outside nodeData/kvData/prevNode, fuel never exhausted. *)
Theorem C14_model_never_panics :
  forall c, comparer_ok c -> forall p, mparams_ok p ->
  forall ops, heights_ok (tMaxHeight p) ops -> exists outs, run c p ops = Ok outs.
Proof. exact run_total. Qed.
Print Assumptions C14_model_never_panics.

(* Non-vacuity of 4: a reader stands on key 1; the writer deletes 1 and then 2; the reader's Next
   follows the link the unlinked node kept and yields the pair (2, 20), which is no longer live but
   was stored and is larger than 1; the following Next yields (3, 30). *)
Definition c14_conc_example : list action :=
  [AWPut [1] [10] 1; AWPut [2] [20] 2; AWPut [3] [30] 1; ARNew 0 None; ARMove 0 MFirst;
   AWDelete [1]; AWDelete [2]; ARMove 0 MNext; ARMove 0 MNext; ARGet [2]; ARMove 0 MPrev].

Example C14_conc_nonvacuous :
  aheights_ok mp c14_conc_example /\
  exists obs, crun bytewise mp c14_conc_example = Ok obs /\
    map (fun o => match o with
                  | ObsMove _ _ a _ => (it_key a, it_val a)
                  | ObsGet _ v _ => (None, v)
                  | _ => (None, None) end) obs =
    [(None, None); (None, None); (None, None); (None, None); (Some [1], Some [10]);
     (None, None); (None, None); (Some [2], Some [20]); (Some [3], Some [30]); (None, None);
     (None, None)].
Proof.
  split.
  - unfold c14_conc_example. repeat constructor; vm_compute; congruence.
  - eexists. split; vm_compute; reflexivity.
Qed.

(* Non-vacuity: a program with an overwrite that changes the value length, a Delete, a Delete of
   an absent key, a sliced iterator walked in both directions around a write, Reset and reuse is
   answered by the reference, and the model's run (computed) gives the same outputs. *)
Definition c14_example : list op :=
  [OPut [1] [10] 1; OPut [2] [20] 3; OPut [1;0] [30] 2; OPut [1] [11;12] 1;
   ONewIter 0 (Some (Some [1], Some [2])); OFirst 0; ONext 0; OPut [1;5] [] 12; ONext 0; OPrev 0; ONext 0; ONext 0;
   ODelete [2]; ODelete [7]; OGet [1]; OFind [1;1]; OContains [2]; OLen; OSize; OLast 0; OPrev 0;
   OReset; OLen; OPut [] [1] 1; OFind []; OUsed].

Example C14_nonvacuous :
  comparer_ok bytewise /\ heights_ok (tMaxHeight mp) c14_example /\
  exists outs, spec_run bytewise c14_example = Some outs /\ run bytewise mp c14_example = Ok outs /\
               length outs = 26%nat.
Proof.
  split; [exact bytewise_ok|]. split.
  - unfold c14_example. repeat constructor; vm_compute; congruence.
  - eexists. split; [vm_compute; reflexivity|]. split; vm_compute; reflexivity.
Qed.
