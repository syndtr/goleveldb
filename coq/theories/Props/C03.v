(* Props/C03.v — property C03: snapshots are frozen views, immune to later activity (iterators read at a
   snapshot's sequence number; what they enumerate is Props/C02.v).  Three parts: the abstract compaction and its
   drop rule, the drop rule as tableCompactionBuilder runs it (Lsm/Builder.v), and the first part for preorder
   comparers.  Theorems are closed by lemmas of the model's proof files and followed by Print Assumptions; the
   Examples run concrete inputs defined here. *)
From GL Require Import Base.Order Codec.IKey Codec.BytesCmp Codec.BytesCmpProofs Lsm.Lsm Lsm.Compact Lsm.LsmProofs
  Lsm.CompactProofs Lsm.History Lsm.HistoryProofs Lsm.ReorgProofs Lsm.CertProofs Gen.ConstsOk.

(* A snapshot taken after ops1 keeps returning, for every key, what the plain map held at that instant —
   whatever writes, deletes, flushes, compactions, other snapshots and releases (ops2) follow, as long as it
   has not been released itself.  Releasing other snapshots is just one more kind of later activity. *)
Theorem C03_snapshot_stable : forall c, comparer_ok c -> forall p ops1 ops2 k,
  hops_ok c p h_init (ops1 ++ ops2) ->
  In (h_seq (hrun ops1)) (h_snaps (hrun (ops1 ++ ops2))) ->
  store_get c p (hrun (ops1 ++ ops2)) k (h_seq (hrun ops1)) = a_get c k (map_of c p ops1).
Proof. exact snapshot_stable. Qed.
Print Assumptions C03_snapshot_stable.

(* The drop rule of the compaction builder, per user key: for every sequence number s >= minSeq (every
   reader that can still exist), the kept entries answer a lookup exactly as the inputs did; and nothing is
   invented. *)
Theorem C03_drop_rule_sound : forall c, comparer_ok c -> forall p, kparams_ok p ->
  forall minSeq base, (minSeq < keyMaxSeq p)%N -> forall k s l,
  ssorted c l -> kinds_ok p l -> (minSeq <= s)%N ->
  CompactProofs.res p (newest c k s (drop_run c p minSeq base None l) None) = CompactProofs.res p (newest c k s l None).
Proof. exact drop_rule_sound. Qed.
Print Assumptions C03_drop_rule_sound.

Theorem C03_drop_rule_subset : forall c p minSeq base l x,
  In x (drop_run c p minSeq base None l) -> In x l.
Proof. exact drop_rule_subset. Qed.
Print Assumptions C03_drop_rule_subset.

(* A whole table compaction preserves every read at a sequence number >= minSeq (in particular at every live
   snapshot, because minSeq is the oldest live snapshot or the current sequence number, read once at the
   start: later snapshots are newer). *)
Theorem C03_compaction_preserves : forall c, comparer_ok c -> forall p, kparams_ok p ->
  forall minSeq base, (minSeq < keyMaxSeq p)%N -> forall I O,
  kinds_ok p I -> NoDup (map keyseq I) -> uniq_in (I ++ O) ->
  (forall o i, In o O -> In i I -> e_uk o = e_uk i ->
     (e_seq i < e_seq o)%N \/ ((e_seq o < e_seq i)%N /\ base (e_uk i) = false)) ->
  forall k s, (minSeq <= s)%N ->
  History.res p (newest c k s (drop_run c p minSeq base None (isort c I) ++ O) None) =
  History.res p (newest c k s (I ++ O) None).
Proof. exact compaction_preserves. Qed.
Print Assumptions C03_compaction_preserves.

Theorem C03_certificate_sound : forall c, comparer_ok c -> forall p, kparams_ok p ->
  forall minSeq deeper I O outs,
  compaction_cert c p minSeq deeper I O outs = true ->
  concat outs = drop_run c p minSeq (is_base c deeper) None (isort c I) ->
  forall k s, (minSeq <= s)%N ->
  History.res p (newest c k s (concat outs ++ O) None) = History.res p (newest c k s (I ++ O) None).
Proof. exact certificate_sound. Qed.
Print Assumptions C03_certificate_sound.

(* Non-vacuity: key 1 was overwritten (seq 9 over seq 5) and key 2 deleted (seq 8 over seq 3); with a
   snapshot at 6 (minSeq = 6) the compaction must keep (1,5) and (2,3); with minSeq = 9 it drops them, and at
   base level the tombstone too. *)
Definition ex3 (k s kd v : N) : entry := {| e_uk := [k]; e_seq := s; e_kind := kd; e_val := [v] |}.
Definition ex3_in : list entry := [ex3 1 9 1 90; ex3 1 5 1 50; ex3 2 8 0 0; ex3 2 3 1 30].
Example C03_nonvacuous :
  ssorted bytewise ex3_in /\ kinds_ok kp ex3_in /\
  drop_run bytewise kp 6 (fun _ => true) None ex3_in = ex3_in /\
  drop_run bytewise kp 9 (fun _ => false) None ex3_in = [ex3 1 9 1 90; ex3 2 8 0 0] /\
  drop_run bytewise kp 9 (fun _ => true) None ex3_in = [ex3 1 9 1 90].
Proof.
  split; [|split; [|repeat split; vm_compute; reflexivity]].
  - cbn. repeat split; repeat constructor; vm_compute; reflexivity.
  - repeat constructor; vm_compute; congruence.
Qed.

(* The drop rule as tableCompactionBuilder really runs it (model Lsm/Builder.v: the run loop with hasLastUkey / lastUkey /
   lastSeq, the base-level cursors, table rotation, and compactionTransact's retries after transient errors with the
   builder's and the compaction's snapshot restored and the first snapIter entries of a fresh iterator skipped). *)
From GL Require Import Lsm.Pick Lsm.Builder Lsm.BuilderBase Lsm.BuilderProofs Lsm.BuilderCuts Lsm.BuilderReads.

(* Whatever transient failures hit the attempts (iterator, table creation/append, flush, cleanup; any positions, any
   number of attempts), the tables recorded when compactionTransact returns answer, for every user key and every sequence
   number s >= minSeq, exactly as the merged inputs did: no kept entry is lost or duplicated at a resume point, nothing
   that a live snapshot needs is dropped. *)
Theorem C03_builder_retry_preserves_reads : forall c, comparer_ok c -> forall p, kparams_ok p ->
  forall sz gp maxgp deeper, Forall (lvl_ok c p) deeper ->
  forall minSeq, (minSeq < keyMaxSeq p)%N -> forall strict tableSize tsize es os s',
  ssorted c es -> kinds_ok p es ->
  transact c p sz gp maxgp deeper minSeq strict tableSize tsize os (map IGood es) (bst0 deeper) = (s', TDone) ->
  forall k s, (minSeq <= s)%N ->
  CompactProofs.res p (newest c k s (concat (fin s')) None) = CompactProofs.res p (newest c k s es None).
Proof. exact builder_preserves_reads. Qed.
Print Assumptions C03_builder_retry_preserves_reads.

(* ... and the whole compaction (I = entries of the input tables, O = every other stored entry) preserves reads at every
   s >= minSeq, with the installed tables in place of the abstract drop_run of C03_compaction_preserves. *)
Theorem C03_builder_compaction_preserves : forall c, comparer_ok c -> forall p, kparams_ok p ->
  forall sz gp maxgp deeper, Forall (lvl_ok c p) deeper ->
  forall minSeq, (minSeq < keyMaxSeq p)%N -> forall strict tableSize tsize I O os s',
  kinds_ok p I -> NoDup (map keyseq I) -> uniq_in (I ++ O) ->
  (forall o i, In o O -> In i I -> e_uk o = e_uk i ->
     (e_seq i < e_seq o)%N \/ ((e_seq o < e_seq i)%N /\ is_base c deeper (e_uk i) = false)) ->
  transact c p sz gp maxgp deeper minSeq strict tableSize tsize os (map IGood (isort c I)) (bst0 deeper) = (s', TDone) ->
  forall k s, (minSeq <= s)%N ->
  History.res p (newest c k s (concat (fin s') ++ O) None) = History.res p (newest c k s (I ++ O) None).
Proof. exact builder_compaction_preserves. Qed.
Print Assumptions C03_builder_compaction_preserves.

(* Non-vacuity: the inputs of C03_nonvacuous, a snapshot at 6 (minSeq = 6: everything is kept) and minSeq = 9 at base level
   (only 1@9 survives); tables hold one entry's worth of bytes; the first attempt fails in the flush at the first
   user-key boundary, the second in appendKV right after the snapshot taken there, the third succeeds. *)
Example C03_builder_nonvacuous :
  let fl := {| o_closed := false; o_next := fun _ => false; o_append := fun _ => AOk; o_flush := Nat.eqb 2;
               o_cleanup := false; o_perr := false; o_closed_sel := false |} in
  let ap := {| o_closed := false; o_next := fun _ => false; o_append := fun i => if Nat.eqb i 2 then AWrite else AOk;
               o_flush := fun _ => false; o_cleanup := true; o_perr := false; o_closed_sel := false |} in
  let size := fun l : list item => (10 * N.of_nat (length l))%N in
  (exists s', transact bytewise kp (fun _ => 100%N) [] 1000 [] 6 true 10 size [fl; ap; o_ok] (map IGood ex3_in) (bst0 [])
              = (s', TDone) /\ fin s' = [[ex3 1 9 1 90; ex3 1 5 1 50]; [ex3 2 8 0 0; ex3 2 3 1 30]] /\ drop s' = 0%N) /\
  (exists s', transact bytewise kp (fun _ => 100%N) [] 1000 [] 9 true 10 size [fl; ap; o_ok] (map IGood ex3_in) (bst0 [])
              = (s', TDone) /\ fin s' = [[ex3 1 9 1 90]] /\ drop s' = 3%N).
Proof. split; eexists; (split; [vm_compute; reflexivity|]); vm_compute; split; reflexivity. Qed.

(* PREORDER COMPARERS (Base/OrderPre.v comparer_pre_ok: byte-different keys may compare equal and are then ONE user
   key; see Props/C01.v (P)).  Snapshot stability, the drop rule and the whole-compaction theorem proved without
   the injectivity field cmp_eq; "same user key" is cmp c a b = Eq throughout.  The theorems above are the special
   cases for injective comparers.  The builder theorems (C03_builder_retry_preserves_reads, C03_builder_compaction_preserves) still assume comparer_ok. *)
From GL Require Import Base.OrderPre Codec.CiCmp Codec.CiCmpProofs Lsm.CompactPre Lsm.LsmPreProofs Lsm.CompactPreProofs
  Lsm.HistoryPreProofs Lsm.ReorgPreProofs Lsm.WfPreProofs.

Theorem C03_snapshot_stable_pre : forall c, comparer_pre_ok c -> forall p ops1 ops2 k,
  hops_ok c p h_init (ops1 ++ ops2) ->
  In (h_seq (hrun ops1)) (h_snaps (hrun (ops1 ++ ops2))) ->
  store_get c p (hrun (ops1 ++ ops2)) k (h_seq (hrun ops1)) = a_get c k (map_of c p ops1).
Proof. exact snapshot_stable_pre. Qed.
Print Assumptions C03_snapshot_stable_pre.

Theorem C03_drop_rule_sound_pre : forall c, comparer_pre_ok c -> forall p, kparams_ok p ->
  forall minSeq base, (minSeq < keyMaxSeq p)%N -> forall k s l,
  ssorted c l -> kinds_ok p l -> (minSeq <= s)%N ->
  CompactProofs.res p (newest c k s (drop_run c p minSeq base None l) None) = CompactProofs.res p (newest c k s l None).
Proof. exact drop_rule_sound_pre. Qed.
Print Assumptions C03_drop_rule_sound_pre.

Theorem C03_compaction_preserves_pre : forall c, comparer_pre_ok c -> forall p, kparams_ok p ->
  forall minSeq base, (minSeq < keyMaxSeq p)%N -> forall I O,
  kinds_ok p I -> uniqE c I -> uniq_inE c (I ++ O) ->
  (forall o i, In o O -> In i I -> cmp c (e_uk o) (e_uk i) = Eq ->
     (e_seq i < e_seq o)%N \/ ((e_seq o < e_seq i)%N /\ base (e_uk i) = false)) ->
  forall k s, (minSeq <= s)%N ->
  History.res p (newest c k s (drop_run c p minSeq base None (isort c I) ++ O) None) =
  History.res p (newest c k s (I ++ O) None).
Proof. exact compaction_preserves_pre. Qed.
Print Assumptions C03_compaction_preserves_pre.

Theorem C03_certificatec_sound : forall c, comparer_pre_ok c -> forall p, kparams_ok p ->
  forall minSeq deeper I O outs,
  compaction_certc c p minSeq deeper I O outs = true ->
  concat outs = drop_run c p minSeq (is_base c deeper) None (isort c I) ->
  forall k s, (minSeq <= s)%N ->
  History.res p (newest c k s (concat outs ++ O) None) = History.res p (newest c k s (I ++ O) None).
Proof. exact certificatec_sound. Qed.
Print Assumptions C03_certificatec_sound.

(* Non-vacuity under the non-injective comparer of the harness (id 4): "Key" (seq 3) overwritten as "KEY" (seq 9),
   "ab" (seq 2) deleted as "AB" (seq 8).  With a snapshot at 6 everything is kept; with minSeq = 9 the hidden
   versions go, and at base level the marker too — although the spellings differ. *)
Definition ex3c (u : bytes) (s kd v : N) : entry := {| e_uk := u; e_seq := s; e_kind := kd; e_val := [v] |}.
Definition ex3c_in : list entry :=
  [ex3c [65; 66]%N 8 0 0; ex3c [97; 98]%N 2 1 20; ex3c [75; 69; 89]%N 9 1 90; ex3c [75; 101; 121]%N 3 1 30].
Example C03_casefold_nonvacuous :
  comparer_pre_ok cicmp /\ ~ comparer_ok cicmp /\
  ssorted cicmp ex3c_in /\ kinds_ok kp ex3c_in /\
  drop_run cicmp kp 6 (fun _ => true) None ex3c_in = ex3c_in /\
  drop_run cicmp kp 9 (fun _ => false) None ex3c_in = [ex3c [65; 66]%N 8 0 0; ex3c [75; 69; 89]%N 9 1 90] /\
  drop_run cicmp kp 9 (fun _ => true) None ex3c_in = [ex3c [75; 69; 89]%N 9 1 90].
Proof.
  split; [exact cicmp_pre_ok|]. split; [exact cicmp_not_injective|].
  split; [|split; [|repeat split; vm_compute; reflexivity]].
  - cbn. repeat split; repeat constructor; vm_compute; reflexivity.
  - repeat constructor; vm_compute; congruence.
Qed.
