(* Props/C01.v — property C01: reads return the latest write; the DB behaves as an ordered map.
   Theorems are closed by lemmas of Lsm/ and followed by Print Assumptions; the example states, witnesses and
   non-vacuity Examples defined here are evaluated.  Structure: (1) read path on a well-formed layout = newest visible entry among
   ALL stored entries; (2) any history of writes, snapshots and admissible reorganisations answers like the
   plain map; (3) the reorganisations the DB performs are admissible; (4) the boolean certificates the
   correspondence check evaluates on the implementation's versions/compactions imply the hypotheses; (5) the read
   path on BYTES (memdb arrays, table files) computes the read of (1); (6) the write path of one batch down to the
   bytes of its journal record and its memdb insertions, the batch decoder on arbitrary and cut bytes, journal replay;
   (7) the steps that change the byte state (write, rotation, flush, compaction, transaction commit) keep it well-formed
   and every history of them reads like the plain map; (P) the chain (1)-(4) for comparers that are total preorders
   (comparer_pre_ok), of which (1)-(4) are special cases.  Each part imports what it needs where it begins. *)
From GL Require Import Base.Order Codec.IKey Codec.BytesCmp Codec.BytesCmpProofs Lsm.Lsm Lsm.Compact Lsm.LsmProofs
  Lsm.CompactProofs Lsm.History Lsm.HistoryProofs Lsm.ReorgProofs Lsm.WfProofs Lsm.CertProofs Gen.ConstsOk.
From GL Require Import Codec.Table Codec.TableCheck Codec.TblCrc Lsm.ReadPath Lsm.ReadPathMem Lsm.ReadPathProofs
  Gen.Inst Gen.InstTbl Gen.InstMem Gen.BloomInst Gen.ConstsOkMem.
From GL Require Mem.MemDB.

(* (1) DB.get / version.get on any well-formed layout (write buffer, frozen buffer, transaction tables,
   level 0, sorted levels) returns the newest entry of k with seq <= s among all stored entries —
   wherever it sits — for every comparer satisfying the contract. *)
Theorem C01_get_correct : forall c, comparer_ok c -> forall p, kparams_ok p -> forall st k s,
  wf_state c p st -> lsm_get c p st k s = group_res p (newest c k s (all_entries st) None).
Proof. exact get_correct. Qed.
Print Assumptions C01_get_correct.

Theorem C01_get_refines_spec : forall c, comparer_ok c -> forall p, kparams_ok p -> forall st k s,
  wf_state c p st -> api_of (lsm_get c p st k s) = spec_get c p st k s.
Proof. exact get_refines_spec. Qed.
Print Assumptions C01_get_refines_spec.

(* (2) For every finite sequence of writes (Put, Delete, batches, committed transactions), snapshot
   acquisitions/releases and admissible reorganisations, a read at the current sequence number returns
   exactly what the plain map driven by the same writes returns. *)
Theorem C01_get_is_map : forall c, comparer_ok c -> forall p ops k,
  hops_ok c p (h_init) ops ->
  store_get c p (hrun ops) k (h_seq (hrun ops)) = a_get c k (map_of c p ops).
Proof. exact get_is_map. Qed.
Print Assumptions C01_get_is_map.

Theorem C01_history_correct : forall c, comparer_ok c -> forall p ops, hops_ok c p h_init ops ->
  forall k s, protected (hrun ops) s -> store_get c p (hrun ops) k s = hist_get c p (hrun ops) k s.
Proof. intros c _ p. exact (history_correct c p). Qed.
Print Assumptions C01_history_correct.

(* (3a) Rotation, flush, trivial move: the same entries in another place. *)
Theorem C01_rearrangement_ok : forall c, comparer_ok c -> forall p h s',
  uniq_in (h_store h) -> same_elems (h_store h) s' -> reorg_ok c p h s'.
Proof. exact rearrangement_ok. Qed.
Print Assumptions C01_rearrangement_ok.

(* (3b) A table compaction (merge of the inputs, drop rule with minSeq, tombstones removed at base level)
   is admissible provided minSeq is below every protected sequence number and every other stored entry
   with the user key of an input entry is newer than it, or older and then the key is not at base level. *)
Theorem C01_compaction_reorg_ok : forall c, comparer_ok c -> forall p, kparams_ok p ->
  forall minSeq base, (minSeq < keyMaxSeq p)%N -> forall I O,
  kinds_ok p I -> NoDup (map keyseq I) -> uniq_in (I ++ O) ->
  (forall o i, In o O -> In i I -> e_uk o = e_uk i ->
     (e_seq i < e_seq o)%N \/ ((e_seq o < e_seq i)%N /\ base (e_uk i) = false)) ->
  forall h s', same_elems (h_store h) (I ++ O) ->
  same_elems s' (drop_run c p minSeq base None (isort c I) ++ O) ->
  (forall q, protected h q -> (minSeq <= q)%N) ->
  reorg_ok c p h s'.
Proof. exact compaction_reorg_ok. Qed.
Print Assumptions C01_compaction_reorg_ok.

(* (4) The certificates evaluated by the correspondence check on the implementation's dumps. *)
Theorem C01_wf_versionb_sound : forall c, comparer_ok c -> forall p lvls,
  wf_versionb c p lvls = true ->
  wf_state c p {| st_mem := []; st_frozen := []; st_aux := []; st_levels := lvls |}.
Proof. exact wf_versionb_sound. Qed.
Print Assumptions C01_wf_versionb_sound.

Theorem C01_certificate_sound : forall c, comparer_ok c -> forall p, kparams_ok p ->
  forall minSeq deeper I O outs,
  compaction_cert c p minSeq deeper I O outs = true ->
  concat outs = drop_run c p minSeq (is_base c deeper) None (isort c I) ->
  forall k s, (minSeq <= s)%N ->
  History.res p (newest c k s (concat outs ++ O) None) = History.res p (newest c k s (I ++ O) None).
Proof. exact certificate_sound. Qed.
Print Assumptions C01_certificate_sound.

(* Non-vacuity: a three-level layout with overlapping level-0 tables, a tombstone and an overwritten key
   satisfies the certificate, and a history with a snapshot and a no-op reorganisation is admissible. *)
Definition ex_e (k : N) (s kd v : N) : entry := {| e_uk := [k]; e_seq := s; e_kind := kd; e_val := [v] |}.
Definition ex_levels : list (list table) :=
  [ [ {| t_num := 9; t_entries := [ex_e 1 12 1 50; ex_e 3 11 0 0] |};
      {| t_num := 8; t_entries := [ex_e 1 10 1 40; ex_e 2 9 1 41] |} ];
    [ {| t_num := 5; t_entries := [ex_e 1 5 1 30; ex_e 2 6 0 0] |};
      {| t_num := 6; t_entries := [ex_e 3 4 1 31; ex_e 4 7 1 32] |} ];
    [ {| t_num := 2; t_entries := [ex_e 2 1 1 20; ex_e 3 2 1 21] |} ] ].

Example C01_nonvacuous_layout :
  wf_versionb bytewise kp ex_levels = true /\
  api_of (lsm_get bytewise kp {| st_mem := []; st_frozen := []; st_aux := []; st_levels := ex_levels |} [1]%N 12) = Some [50]%N /\
  api_of (lsm_get bytewise kp {| st_mem := []; st_frozen := []; st_aux := []; st_levels := ex_levels |} [3]%N 12) = None /\
  api_of (lsm_get bytewise kp {| st_mem := []; st_frozen := []; st_aux := []; st_levels := ex_levels |} [3]%N 10) = Some [31]%N /\
  api_of (lsm_get bytewise kp {| st_mem := []; st_frozen := []; st_aux := []; st_levels := ex_levels |} [2]%N 8) = None.
Proof. repeat split; vm_compute; reflexivity. Qed.

Example C01_nonvacuous_history :
  hops_ok bytewise kp h_init [HWrite [(1, [7], [1]); (1, [8], [2])]%N; HSnap; HWrite [(0, [7], [])]%N] /\
  a_get bytewise [7]%N (map_of bytewise kp [HWrite [(1, [7], [1]); (1, [8], [2])]%N; HSnap; HWrite [(0, [7], [])]%N]) = None /\
  a_get bytewise [8]%N (map_of bytewise kp [HWrite [(1, [7], [1]); (1, [8], [2])]%N; HSnap; HWrite [(0, [7], [])]%N]) = Some [2]%N.
Proof.
  split; [|split; vm_compute; reflexivity].
  cbn [hops_ok hop_ok]. repeat split; try (repeat constructor; vm_compute; congruence).
Qed.

(* (5) The read path at BYTE level.  Lsm/ReadPath.v db_get_bytes is DB.Get as the code computes it: memGet =
   memdb.Find with the probe key (ukey, seq, keyTypeSeek) on the array-encoded skip list (live, then frozen),
   then version.get: level 0 in slice order among the tables whose recorded [imin.ukey, imax.ukey] contains the
   key, keeping the hit with the largest sequence number; deeper levels by sort.Search on imax and the imin
   test; every table consulted through table.Reader.Find on the BYTES of its file (footer, metaindex, index
   block seek, the filter block asked first about the user key, data block seek, fall through to the next
   block); user-key equality test after each Find; a deletion marker ends the search with ErrNotFound.
   For every comparer satisfying the contract and every well-formed byte state — the memdbs satisfy the
   representation invariant of property C14 and hold stored keys only; every table file passes the executable
   format check of property C13 (table_check) and has decodable keys, the recorded bounds, and a filter that
   does not hide a stored user key; the abstraction (the sorted entry lists of the buffers and tables) is a
   well-formed L1 layout — every read of a real byte-string key at a sequence number <= keyMaxSeq computes
   exactly what the L1 model's lsm_get computes on the abstraction (no panic, no error, fuel suffices). *)
Theorem C01_read_path_refines :
  forall c, comparer_ok c -> forall p, kparams_ok p -> (keyTypeSeek p <= keyTypeVal p)%N ->
  forall mp, MemDB.mparams_ok mp ->
  forall tp crc decompress fname ufc verify ri k s, wf_bytes k -> (s <= keyMaxSeq p)%N ->
  forall st, wf_bstate c p mp tp crc decompress fname ufc verify ri st ->
  db_get_bytes c p mp tp crc decompress fname ufc verify st k s =
  BRes (lsm_get c p (abs c mp tp crc decompress fname ufc verify ri st) k s).
Proof. exact read_path_refines. Qed.
Print Assumptions C01_read_path_refines.

(* ... hence (with (1)) it returns the newest entry of k with seq <= s among all stored entries, wherever it is
   stored: in a memdb, in a level-0 file, in a deeper file. *)
Theorem C01_get_correct_bytes :
  forall c, comparer_ok c -> forall p, kparams_ok p -> (keyTypeSeek p <= keyTypeVal p)%N ->
  forall mp, MemDB.mparams_ok mp ->
  forall tp crc decompress fname ufc verify ri k s, wf_bytes k -> (s <= keyMaxSeq p)%N ->
  forall st, wf_bstate c p mp tp crc decompress fname ufc verify ri st ->
  db_get_bytes c p mp tp crc decompress fname ufc verify st k s =
  BRes (group_res p (newest c k s (all_entries (abs c mp tp crc decompress fname ufc verify ri st)) None)).
Proof. exact get_correct_bytes. Qed.
Print Assumptions C01_get_correct_bytes.

(* ... and the filter setting is invisible: two settings (no filter, another policy, another reading of the
   filter block) under which the state is well-formed answer every read alike. *)
Theorem C01_filter_setting_irrelevant :
  forall c, comparer_ok c -> forall p, kparams_ok p -> (keyTypeSeek p <= keyTypeVal p)%N ->
  forall mp, MemDB.mparams_ok mp ->
  forall tp crc decompress verify ri fname fname' ufc ufc' st k s, wf_bytes k -> (s <= keyMaxSeq p)%N ->
  wf_bstate c p mp tp crc decompress fname ufc verify ri st ->
  wf_bstate c p mp tp crc decompress fname' ufc' verify ri st ->
  db_get_bytes c p mp tp crc decompress fname ufc verify st k s =
  db_get_bytes c p mp tp crc decompress fname' ufc' verify st k s.
Proof. exact filter_setting_irrelevant. Qed.
Print Assumptions C01_filter_setting_irrelevant.

(* ... and against the plain map of (2): when the memdbs and table files hold exactly the stored collection of an
   admissible history, DB.Get computed on the bytes at the history's current sequence number is the plain
   map's answer, and at every protected sequence number the answer judged on everything ever written. *)
Theorem C01_get_is_map_bytes :
  forall c, comparer_ok c -> forall p, kparams_ok p -> (keyTypeSeek p <= keyTypeVal p)%N ->
  forall mp, MemDB.mparams_ok mp ->
  forall tp crc decompress fname ufc verify ri st ops k,
  wf_bstate c p mp tp crc decompress fname ufc verify ri st -> wf_bytes k ->
  hops_ok c p h_init ops -> h_store (hrun ops) = all_entries (abs c mp tp crc decompress fname ufc verify ri st) ->
  (h_seq (hrun ops) <= keyMaxSeq p)%N ->
  bapi (db_get_bytes c p mp tp crc decompress fname ufc verify st k (h_seq (hrun ops))) =
  Some (a_get c k (map_of c p ops)).
Proof. exact get_is_map_bytes. Qed.
Print Assumptions C01_get_is_map_bytes.

Theorem C01_history_correct_bytes :
  forall c, comparer_ok c -> forall p, kparams_ok p -> (keyTypeSeek p <= keyTypeVal p)%N ->
  forall mp, MemDB.mparams_ok mp ->
  forall tp crc decompress fname ufc verify ri st ops k s,
  wf_bstate c p mp tp crc decompress fname ufc verify ri st -> wf_bytes k ->
  hops_ok c p h_init ops -> h_store (hrun ops) = all_entries (abs c mp tp crc decompress fname ufc verify ri st) ->
  protected (hrun ops) s -> (s <= keyMaxSeq p)%N ->
  bapi (db_get_bytes c p mp tp crc decompress fname ufc verify st k s) = Some (hist_get c p (hrun ops) k s).
Proof. exact history_correct_bytes. Qed.
Print Assumptions C01_history_correct_bytes.

(* the boolean certificate the correspondence run evaluates on the abstraction of every dumped byte state *)
Theorem C01_wf_fullb_sound : forall c, comparer_ok c -> forall p st,
  wf_fullb c p st = true -> wf_state c p st.
Proof. exact wf_fullb_sound. Qed.
Print Assumptions C01_wf_fullb_sound.

(* Non-vacuity at byte level: three table files WRITTEN BY GOLEVELDB (NoCompression, block size 40, restart
   interval 2, bloom filter 10 bits per key, FilterBaseLg 5; taken from a DB after: Put b c d f, CompactRange,
   Put c, Delete d, Put e, reopen, Put c g, reopen, Put a, Delete g) — level 0 = files 8 (newest) and 5 with
   overlapping ranges, level 1 = file 4 with two data blocks — and the write buffer built by the memdb
   model's own Put.  The state is well-formed (so the theorems apply to it), with the bloom filter consulted
   (property C16's model) and with no filter configured, and db_get_bytes, evaluated, returns what the
   real DB returned: a from the buffer, c from the newest level-0 file although older values sit in file 5
   and in level 1, b and f from level 1, d hidden by the deletion marker in file 5, g hidden by the marker in
   the buffer, e from file 5; at sequence number 8 (before the second reopen) c is c2 and g is absent; at 4 d
   is d1. *)
From Coq Require Import String.
Definition ex_file8 : tfile := mkTF 8 (unhex "630109000000000000"%string) (unhex "67010a000000000000"%string)
  (unhex "000902630109000000000000633300090267010a00000000000067330000000001000000006b85060f020a0c14504080800600000000090000000500c55eddb500210266696c7465722e6c6576656c64622e4275696c74696e426c6f6f6d46696c746572291200000000010000000053af85db00090267010a000000000000002400000000010000000038479861402e731600000000000000000000000000000000000000000000000000000000000000000000000057fb808b247547db"%string).
Definition ex_file5 : tfile := mkTF 5 (unhex "630105000000000000"%string) (unhex "650107000000000000"%string)
  (unhex "00090263010500000000000063320009006400060000000000000009026501070000000000006532000000001a00000002000000004c075ecc020a0c18e02080000600000000090000000500768ea2f800210266696c7465722e6c6576656c64622e4275696c74696e426c6f6f6d46696c7465723912000000000100000000326a53e60009026501070000000000000034000000000100000000e6f3e89c502e830116000000000000000000000000000000000000000000000000000000000000000000000057fb808b247547db"%string).
Definition ex_file4 : tfile := mkTF 4 (unhex "620101000000000000"%string) (unhex "660104000000000000"%string)
  (unhex "000902620101000000000000623100090263010200000000000063310009026401030000000000006431000000001c000000020000000004f67afd0009026601040000000000006631000000000100000000900df521122a4c9860218200064000010104001040060000000009000000120000000500441ab79300210266696c7465722e6c6576656c64622e4275696c74696e426c6f6f6d46696c746572561f000000000100000000102a39ac00090264010300000000000000360009026601040000000000003b16000000000e00000002000000007f35b5527a2ead0128000000000000000000000000000000000000000000000000000000000000000000000057fb808b247547db"%string).
Definition ex_mem_puts : list (bytes * bytes * N) :=
  [([97; 1; 12; 0; 0; 0; 0; 0; 0], [97; 52], 1); ([103; 0; 13; 0; 0; 0; 0; 0; 0], [], 2)]%N.
Definition ex_bstate : bstate :=
  mkBS (mem_of bytewise mp ex_mem_puts) None [[ex_file8; ex_file5]; [ex_file4]].
Definition ex_fname : option bytes := Some (unhex "6c6576656c64622e4275696c74696e426c6f6f6d46696c746572"%string).
Definition ex_nodec (_ : bytes) : option bytes := None.
Definition ex_get (fname : option bytes) (k : N) (s : N) : option (option bytes) :=
  bapi (db_get_bytes bytewise kp mp tblp tbl_crc ex_nodec fname (bloom_ufc bp (BinInt.Z.of_N 10)) true ex_bstate [k] s).

Lemma ex_mem_keys :
  match mem_of bytewise mp ex_mem_puts with Some d => mem_keys_okb kp mp d | None => false end = true.
Proof. vm_compute. reflexivity. Qed.

Lemma ex_files_ok fname : fname = ex_fname \/ fname = None ->
  Forall (Forall (fun f => tfile_okb bytewise kp tblp tbl_crc ex_nodec fname (bloom_ufc bp (BinInt.Z.of_N 10)) true 2 f = true))
         [[ex_file8; ex_file5]; [ex_file4]].
Proof. intros [-> | ->]; repeat (apply Forall_cons || apply Forall_nil); vm_compute; reflexivity. Qed.

Lemma ex_wf fname : (fname = ex_fname \/ fname = None) ->
  wf_bstate bytewise kp mp tblp tbl_crc ex_nodec fname (bloom_ufc bp (BinInt.Z.of_N 10)) true 2 ex_bstate.
Proof.
  intros Hf. constructor.
  - intros d H. split.
    + apply (mem_of_inv bytewise bytewise_ok mp mp_ok ex_mem_puts d); [|exact H].
      apply Forall_cons; [split; vm_compute; congruence|]. apply Forall_cons; [split; vm_compute; congruence|]. apply Forall_nil.
    + cbn [bs_mem ex_bstate] in H. pose proof ex_mem_keys as K. rewrite H in K. exact K.
  - intros d H. discriminate.
  - exact (ex_files_ok fname Hf).
  - (* the tables decode alike under both settings *)
    rewrite (abs_filter_indep bytewise kp mp tblp tbl_crc ex_nodec true 2 fname ex_fname _ _ ex_bstate
               (ex_files_ok fname Hf) (ex_files_ok ex_fname (or_introl eq_refl))).
    apply (wf_fullb_sound bytewise bytewise_ok kp). vm_compute. reflexivity.
Qed.

Lemma ex_get_filter_irrelevant k s : (k < 256)%N -> (s <= keyMaxSeq kp)%N -> ex_get None k s = ex_get ex_fname k s.
Proof.
  intros Hk Hs. unfold ex_get. apply (f_equal bapi).
  apply (filter_setting_irrelevant bytewise bytewise_ok kp kp_ok ltac:(vm_compute; discriminate) mp mp_ok tblp tbl_crc ex_nodec true 2);
    [constructor; [exact Hk|constructor]|exact Hs|apply ex_wf; right; reflexivity|apply ex_wf; left; reflexivity].
Qed.

Example C01_bytes_nonvacuous :
  wf_bstate bytewise kp mp tblp tbl_crc ex_nodec ex_fname (bloom_ufc bp (BinInt.Z.of_N 10)) true 2 ex_bstate /\
  wf_bstate bytewise kp mp tblp tbl_crc ex_nodec None (bloom_ufc bp (BinInt.Z.of_N 10)) true 2 ex_bstate /\
  (keyTypeSeek kp <= keyTypeVal kp)%N /\ MemDB.mparams_ok mp /\
  map (fun k => ex_get ex_fname k 13) [97; 98; 99; 100; 101; 102; 103; 104]%N =
    [Some (Some [97; 52]); Some (Some [98; 49]); Some (Some [99; 51]); Some None; Some (Some [101; 50]);
     Some (Some [102; 49]); Some None; Some None]%N /\
  map (fun k => ex_get None k 13) [97; 98; 99; 100; 101; 102; 103; 104]%N =
  map (fun k => ex_get ex_fname k 13) [97; 98; 99; 100; 101; 102; 103; 104]%N /\
  ex_get ex_fname 99 8 = Some (Some [99; 50])%N /\ ex_get ex_fname 103 8 = Some None /\
  ex_get ex_fname 100 4 = Some (Some [100; 49])%N /\ ex_get ex_fname 99 1 = Some None.
Proof.
  split; [apply ex_wf; left; reflexivity|]. split; [apply ex_wf; right; reflexivity|].
  split; [vm_compute; discriminate|]. split; [exact mp_ok|].
  match goal with |- ?Rd /\ ?Ir /\ ?Rs => assert (E : Rd /\ Rs) by (vm_compute; repeat split; reflexivity) end.
  split; [exact (proj1 E)|]. split; [|exact (proj2 E)].
  apply map_ext_in. intros k Hk. apply ex_get_filter_irrelevant; [|vm_compute; discriminate].
  repeat (destruct Hk as [<-|Hk]; [reflexivity|]). destruct Hk.
Qed.

(* (6) The WRITE path down to the bytes that reach the journal and the memdb (Codec/Batch.v = leveldb/batch.go
   and the memdb-insertion half of db_write.go / journal recovery: Batch.Put/Delete (appendRec), Dump, Load
   (decodeBatch), Replay, the 12-byte header, writeBatchesWithHeader = the ONE journal record of a merged group,
   Batch.putMem, decodeBatchToMem, the per-record step of recoverJournal).  Go ints are 64-bit with the wrap
   written out; panics, non-termination (fuel) and corruption errors are explicit results (and proved absent
   where the theorems say so). *)
From GL Require Import Codec.Batch Codec.BatchProofs Codec.BatchCutProofs Codec.BatchGroupProofs Lsm.BatchWriteProofs
  Lsm.ReorgProofs Gen.Consts.
From GL Require Mem.MemSpec.

(* the constants the statements below fix, re-proved from the generated ones on every run *)
Example C01_batch_consts : ldb_batchHeaderLen = 12%N /\ keyTypeDel kp = 0%N /\ keyTypeVal kp = 1%N.
Proof. repeat split. Qed.

(* (6a) Load(Dump(b)) rebuilds b — bytes, index array, internalLen — for EVERY record list (empty keys and
   values, any lengths; the only size condition is the one Go's int imposes: the encoding is shorter than
   2^59 bytes, so that internalLen does not wrap), and the records read back are the ones written, a
   deletion carrying no value. *)
Theorem C01_batch_load_dump : forall p, kparams_ok p -> forall recs,
  Forall (rec_ok p) recs -> (lenN (enc_recs p recs) < 2 ^ 59)%N ->
  batch_load p (batch_dump (batch_of p recs)) = DOk (batch_of p recs).
Proof. exact load_dump. Qed.
Print Assumptions C01_batch_load_dump.

Theorem C01_batch_roundtrip : forall p, kparams_ok p -> forall recs,
  Forall (rec_ok p) recs -> (lenN (enc_recs p recs) < 2 ^ 59)%N ->
  exists b, batch_load p (batch_dump (batch_of p recs)) = DOk b /\
            batch_records b = Some (map (norm_rec p) recs) /\
            batch_len b = N.of_nat (length recs).
Proof. exact batch_roundtrip. Qed.
Print Assumptions C01_batch_roundtrip.

(* (6b) The decoder on other bytes (FULL): on ARBITRARY bytes — any byte string a Go slice can hold, len(data) < 2^63
   — Batch.Load returns a batch or a corruption error: it never panics (every index and slice expression of
   decodeBatch is in range) and it always terminates (the fuel len(data)+1 is never exhausted).  This holds for
   the code from d912a49 on (bounds tests "x > uint64(len(data)-o)"); for the code before it see
   C01_batch_decode_total_refuted below. *)
Theorem C01_batch_decode_total : forall p data, (lenN data < 2 ^ 63)%N ->
  (exists b, batch_load p data = DOk b) \/ (exists e b, batch_load p data = DErr e b).
Proof. exact load_total. Qed.
Print Assumptions C01_batch_decode_total.

(* ... and precisely on a CUT encoding (FULL): the first n bytes of the encoding of a record list decode to
   the records that lie wholly before the cut when the cut falls between two records — a shorter batch, NOT
   an error: the plain encoding carries no count — and otherwise to the error 'invalid key length' (cut
   before the end of the cut record's key) or 'invalid value length' (after it), with the records before it
   already indexed. *)
Theorem C01_batch_decode_prefix : forall p, kparams_ok p -> forall recs n,
  Forall (rec_ok p) recs -> (lenN (enc_recs p recs) < 2 ^ 59)%N ->
  batch_load p (takeN n (enc_recs p recs)) =
  match cut_at p n recs with
  | (done, None) => DOk (mkbatch (takeN n (enc_recs p recs)) (idxs_of p 0 done) (ilen_of p done))
  | (done, Some (r, m)) => DErr (cut_err r m) (mkbatch (takeN n (enc_recs p recs)) (idxs_of p 0 done) (ilen_of p done))
  end.
Proof. exact load_prefix. Qed.
Print Assumptions C01_batch_decode_prefix.

(* The witnesses of the PRE-FIX behaviour (defect batch-load-huge-varint, repaired in /repo by d912a49; the old
   decoder is kept in Codec/Batch.v as decode_loop_old / batch_load_old for this statement only): with the bounds
   tests "o+int(x) > len(data)" totality was false — 11 bytes on which the decoding loop never advanced, for EVERY
   amount of fuel, and inputs on which it indexed with a negative offset — and on the same inputs the decoder as
   it is now returns the corruption error. *)
Theorem C01_batch_decode_total_refuted :
  (forall fuel i b, decode_loop_old kp fuel loop_input decode_cb i 0%Z b = DFuel) /\
  batch_load_old kp loop_input = DFuel /\
  batch_load_old kp [0; 255; 255; 255; 255; 255; 255; 255; 255; 127]%N = DPanic /\
  batch_load_old kp [1; 128; 128; 128; 128; 128; 128; 128; 128; 128; 1]%N = DPanic /\
  (exists b, batch_load kp loop_input = DErr EKeyLen b) /\
  (exists b, batch_load kp [0; 255; 255; 255; 255; 255; 255; 255; 255; 127]%N = DErr EKeyLen b) /\
  (exists b, batch_load kp [1; 128; 128; 128; 128; 128; 128; 128; 128; 128; 1]%N = DErr EKeyLen b).
Proof.
  split; [exact (loop_input_never_ends kp eq_refl)|].
  repeat split; try (vm_compute; reflexivity); eexists; vm_compute; reflexivity.
Qed.
Print Assumptions C01_batch_decode_total_refuted.

(* (6c) The journal record of a merged group: one header with the group's first sequence number and the
   TOTAL count, then the records of every batch in order.  It decodes to exactly that. *)
Theorem C01_group_record_roundtrip : forall p, kparams_ok p -> forall bhl, bhl = 12%N -> forall groups seq,
  Forall (rec_ok p) (concat groups) -> (seq < 2 ^ 64)%N ->
  (N.of_nat (length (concat groups)) < 2 ^ 32)%N -> (lenN (enc_recs p (concat groups)) < 2 ^ 59)%N ->
  let record := group_record (group_of p groups) seq in
  decode_header bhl record = inr (seq, N.of_nat (length (concat groups))) /\
  batch_load p (dropN bhl record) = DOk (batch_of p (concat groups)) /\
  batch_records (batch_of p (concat groups)) = Some (map (norm_rec p) (concat groups)).
Proof. exact group_record_roundtrip. Qed.
Print Assumptions C01_group_record_roundtrip.

(* (6d) Replay = live, for EVERY memdb state (no invariant needed: both paths are the same sequence of
   makeInternalKey + memdb.Put calls): decodeBatchToMem of the group's journal record is rejected with
   'invalid sequence number', the memdb untouched, when the record is older than expected; otherwise it IS
   putMem of the group's batches in order and returns (first seq, total count).  So recovery replays a
   group atomically: all of its records, or an error before the first one. *)
Theorem C01_replay_equals_live : forall p, kparams_ok p -> forall bhl, bhl = 12%N ->
  forall mc mp groups seq expect d hs,
  Forall (rec_ok p) (concat groups) -> (seq < 2 ^ 64)%N ->
  (N.of_nat (length (concat groups)) < 2 ^ 32)%N -> (lenN (enc_recs p (concat groups)) < 2 ^ 59)%N ->
  (seq + N.of_nat (length (concat groups)) <= keyMaxSeq p)%N ->
  decode_to_mem p bhl mc mp (group_record (group_of p groups) seq) expect d hs =
  if (seq <? expect)%N then TmErr ESeq d hs
  else match putmem_group p mc mp (group_of p groups) seq d hs with
       | PmOk d' hs' => TmOk seq (N.of_nat (length (concat groups))) d' hs'
       | PmPanic => TmPanic
       | PmFuel => TmFuel
       end.
Proof. exact replay_equals_live. Qed.
Print Assumptions C01_replay_equals_live.

(* ... the live path's own record, replayed by recoverJournal's step at the old db.seq, rebuilds the live
   path's memdb; db.seq becomes first seq + count, one above the live path's db.seq *)
Theorem C01_write_then_recover : forall p, kparams_ok p -> forall bhl, bhl = 12%N ->
  forall mc mp groups dbseq strict d hs record d' hs' dbseq',
  Forall (rec_ok p) (concat groups) -> (dbseq + 1 < 2 ^ 64)%N ->
  (N.of_nat (length (concat groups)) < 2 ^ 32)%N -> (lenN (enc_recs p (concat groups)) < 2 ^ 59)%N ->
  (dbseq + 1 + N.of_nat (length (concat groups)) <= keyMaxSeq p)%N ->
  write_group p mc mp dbseq (group_of p groups) d hs = WgOk record d' hs' dbseq' ->
  recover_step p bhl mc mp strict record dbseq d hs = RsOk d' hs' (u64 (dbseq' + 1)).
Proof. exact write_then_recover. Qed.
Print Assumptions C01_write_then_recover.

(* (6e) putMem is one HWrite step of the history machine: on a memdb that satisfies C14's representation
   invariant, holds stored keys and nothing newer than db.seq, Batch.putMem at db.seq+1 of a batch built by
   Put/Delete calls succeeds (no panic — sequence numbers stay <= keyMaxSeq —, fuel suffices), keeps the
   invariant, and the memdb's abstraction (the entries of its level-0 chain, as ReadPath's abs reads them)
   is the old abstraction plus exactly the entries (k_i, db.seq+1+i, kind_i, v_i) = stamp db.seq recs, which
   is what hstep (HWrite recs) appends to the store.  Uses C14's put_ok; the skip list is not re-proved. *)
Theorem C01_putmem_is_history_write :
  forall c, comparer_ok c -> forall p, kparams_ok p -> (keyTypeSeek p <= keyTypeVal p)%N ->
  forall mp, MemDB.mparams_ok mp -> forall d recs dbseq hs,
  mem_ok c p mp d -> (forall x, In x (mem_entries mp (Some d)) -> (e_seq x <= dbseq)%N) ->
  Forall (rec_wf p) recs -> (dbseq + N.of_nat (length recs) <= keyMaxSeq p)%N -> heights_okl mp hs ->
  (lenN (enc_recs p recs) < 2 ^ 63)%N ->
  exists d' hs',
    batch_putmem p (ibc c) mp (batch_of p recs) (dbseq + 1) d hs = PmOk d' hs' /\ mem_ok c p mp d' /\ heights_okl mp hs' /\
    (forall x, In x (mem_entries mp (Some d')) <->
               In x (mem_entries mp (Some d)) \/ In x (stamp dbseq (map (norm_rec p) recs))).
Proof. exact putmem_is_history_write. Qed.
Print Assumptions C01_putmem_is_history_write.

(* (6f) ... composed with (5): after a merged group was written — live path (write_group) or replay path
   (recover_step on the record the live path wrote) — the byte state is well-formed again and DB.Get computed
   on the bytes at the new sequence number returns, for every key, what the group's LAST record for that key
   says (its value; not-found for a deletion), and for a key the group does not mention what DB.Get returned
   before the write. *)
Theorem C01_get_after_group_write :
  forall c, comparer_ok c -> forall p, kparams_ok p -> (keyTypeSeek p <= keyTypeVal p)%N ->
  forall mp, MemDB.mparams_ok mp ->
  forall tp crc decompress fname ufc verify ri st d groups dbseq hs k strict,
  wf_bstate c p mp tp crc decompress fname ufc verify ri st -> bs_mem st = Some d ->
  uniq_in (all_entries (abs c mp tp crc decompress fname ufc verify ri st)) ->
  (forall x, In x (all_entries (abs c mp tp crc decompress fname ufc verify ri st)) -> (e_seq x <= dbseq)%N) ->
  Forall (rec_wf p) (concat groups) -> (dbseq + N.of_nat (length (concat groups)) < keyMaxSeq p)%N -> heights_okl mp hs ->
  (N.of_nat (length (concat groups)) < 2 ^ 32)%N -> (lenN (enc_recs p (concat groups)) < 2 ^ 59)%N -> wf_bytes k ->
  exists record d' hs' prev,
    write_group p (ibc c) mp dbseq (group_of p groups) d hs = WgOk record d' hs' (dbseq + N.of_nat (length (concat groups))) /\
    recover_step p 12 (ibc c) mp strict record dbseq d hs = RsOk d' hs' (dbseq + N.of_nat (length (concat groups)) + 1) /\
    wf_bstate c p mp tp crc decompress fname ufc verify ri (with_mem st d') /\
    bapi (db_get_bytes c p mp tp crc decompress fname ufc verify st k dbseq) = Some prev /\
    bapi (db_get_bytes c p mp tp crc decompress fname ufc verify (with_mem st d') k (dbseq + N.of_nat (length (concat groups)))) =
      Some (recs_get p c k (concat groups) prev).
Proof. exact get_after_group_replay. Qed.
Print Assumptions C01_get_after_group_write.

(* Non-vacuity of (6): on the byte state of C01_bytes_nonvacuous (three table files written by goleveldb + a
   memdb), a merged group of two batches — Put a, Delete c | Put h, Put a again — satisfies every hypothesis of
   C01_get_after_group_write at db.seq = 13, and the model, evaluated, writes one journal record with first
   sequence number 14 and count 4 and then answers: a = the second Put, c deleted, h present, b unchanged. *)
Definition ex_d : MemDB.db :=
  match mem_of bytewise mp ex_mem_puts with Some d => d | None => MemDB.mkdb [] [] 1 0%Z 0%Z end.
Definition ex_groups : list (list brec) :=
  [[(1, [97], [1; 1]); (0, [99], [])]; [(1, [104], []); (1, [97], [2])]]%N.
Definition ex_abs : lstate := abs bytewise mp tblp tbl_crc ex_nodec ex_fname (bloom_ufc bp (BinInt.Z.of_N 10)) true 2 ex_bstate.

Lemma ex_abs_entries : uniq_in (all_entries ex_abs) /\ forall x, In x (all_entries ex_abs) -> (e_seq x <= 13)%N.
Proof.
  assert (H : uniqb (all_entries ex_abs) && forallb (fun x => (e_seq x <=? 13)%N) (all_entries ex_abs) = true)
    by (vm_compute; reflexivity).
  apply andb_prop in H as [U B]. split; [exact (CertProofs.uniqb_uniq_in _ U)|].
  intros x Hx. rewrite forallb_forall in B. apply N.leb_le. exact (B x Hx).
Qed.

Example C01_batch_write_nonvacuous :
  bs_mem ex_bstate = Some ex_d /\
  uniq_in (all_entries ex_abs) /\
  (forall x, In x (all_entries ex_abs) -> (e_seq x <= 13)%N) /\
  Forall (rec_wf kp) (concat ex_groups) /\ heights_okl mp [2; 1; 1]%N /\
  match write_group kp (ibc bytewise) mp 13 (group_of kp ex_groups) ex_d [2; 1; 1]%N with
  | WgOk record d' _ s' =>
      decode_header 12 record = inr (14, 4)%N /\ s' = 17%N /\
      map (fun k => bapi (db_get_bytes bytewise kp mp tblp tbl_crc ex_nodec ex_fname (bloom_ufc bp (BinInt.Z.of_N 10)) true
                            (with_mem ex_bstate d') [k] 17)) [97; 98; 99; 104]%N =
      [Some (Some [2]); Some (Some [98; 49]); Some None; Some (Some [])]%N
  | _ => False
  end.
Proof.
  split; [vm_compute; reflexivity|].
  split; [exact (proj1 ex_abs_entries)|]. split; [exact (proj2 ex_abs_entries)|].
  split; [repeat constructor; vm_compute; auto; intros; discriminate|].
  split; [repeat constructor; vm_compute; congruence|].
  vm_compute. repeat split.
Qed.

(* (6g) The header's sequence numbers stay in the range of an internal key (decodeBatchToMem
   rejects a header whose sequence numbers leave the key range: seq > keyMaxSeq || count > keyMaxSeq - seq is
   'invalid sequence number'): an ACCEPTED record has first seq + count <= keyMaxSeq, for arbitrary bytes; hence
   recoverJournal's "db.seq = batchSeq + uint64(batchLen)" never wraps and db.seq stays usable as a key's
   sequence number (C19_recover_seq_above_all uses this instead of a no-wrap hypothesis). *)
Theorem C01_replay_seq_in_range : forall p bhl mc mp data expect d hs sq bl d' hs',
  decode_to_mem p bhl mc mp data expect d hs = TmOk sq bl d' hs' -> (sq + bl <= keyMaxSeq p)%N.
Proof.
  intros p bhl mc mp data expect d hs sq bl d' hs'. unfold decode_to_mem.
  destruct (decode_header bhl data) as [e|[s b]]; [discriminate|].
  destruct (s <? expect)%N; [discriminate|].
  destruct ((keyMaxSeq p <? s) || (keyMaxSeq p - s <? b))%N eqn:E; [discriminate|].
  destruct (decode_loop _ _ _ _ _ _ _) as [st|e st| |]; try discriminate.
  destruct (tm_n st =? BinInt.Z.of_N b)%Z; [|discriminate]. intros H. injection H as <- <- _ _.
  apply Bool.orb_false_iff in E as [E1 E2]. apply N.ltb_ge in E1. apply N.ltb_ge in E2.
  clear - E1 E2. Lia.lia.
Qed.
Print Assumptions C01_replay_seq_in_range.

(* The witnesses of the PRE-FIX behaviour (the old decodeBatchToMem is kept as decode_to_mem_old / recover_step_old
   for this statement only).  The wrap of "batchSeq + uint64(batchLen)" itself was NOT reachable: a record with
   header seq = 2^64-1, count = 1 and one well-formed record made makeInternalKey PANIC (Open crashed) before any
   addition; but the 12-byte record seq = 2^64-1, count = 0 was accepted and set db.seq = 2^64-1, above keyMaxSeq:
   every later Get / Put panicked in makeInternalKey, and db.seq + 1 wrapped to sequence number 0 (both reproduced on
   the real code).  The current decoder reports 'invalid sequence number' on both; non-strict recovery skips the
   record and leaves db.seq alone. *)
Theorem C01_replay_seq_wrap_refuted :
  match MemDB.mdb_new mp with
  | MemDB.Ok d0 =>
      let empty := encode_header 18446744073709551615 0 in
      let one := encode_header 18446744073709551615 1 ++ enc_recs kp [(1, [122], [90])]%N in
      (exists d hs, recover_step_old kp 12 (ibc bytewise) mp true empty 7 d0 [] = RsOk d hs 18446744073709551615%N) /\
      recover_step_old kp 12 (ibc bytewise) mp true one 7 d0 [1]%N = RsPanic /\
      recover_step kp 12 (ibc bytewise) mp true empty 7 d0 [] = RsFail ESeq /\
      recover_step kp 12 (ibc bytewise) mp true one 7 d0 [1]%N = RsFail ESeq /\
      recover_step kp 12 (ibc bytewise) mp false empty 7 d0 [] = RsOk d0 [] 7%N /\
      recover_step kp 12 (ibc bytewise) mp false one 7 d0 [1]%N = RsOk d0 [1]%N 7%N
  | _ => False
  end.
Proof. vm_compute. repeat split; try reflexivity. eexists _, _. reflexivity. Qed.
Print Assumptions C01_replay_seq_wrap_refuted.

(* What (6d) does NOT say, as a witness: a record whose header count exceeds the records of its body (it can
   only reach recovery with a valid checksum) is reported as corrupted AFTER its records were inserted — they
   stay in the memdb, and non-strict recovery continues with them (db.seq untouched). *)
Example C01_replay_damaged_record_leaves_partial_batch :
  match MemDB.mdb_new mp with
  | MemDB.Ok d0 =>
      let record := encode_header 5 3 ++ enc_recs kp [(1, [97], [1]); (0, [98], [])]%N in
      match recover_step kp 12 (ibc bytewise) mp false record 5 d0 [1; 1]%N with
      | RsOk d' _ s' => MemDB.nEnt d' = 2%Z /\ s' = 5%N
      | _ => False
      end /\
      recover_step kp 12 (ibc bytewise) mp true record 5 d0 [1; 1]%N = RsFail (ERecLenMismatch 3 2)
  | _ => False
  end.
Proof. vm_compute. repeat split. Qed.

(* (7) The WRITE side of the LSM tree at BYTE level (Lsm/WritePath.v): the steps that change the byte state of (5) — memdbs as
   C14 model states, table FILES as bytes — composed from the existing models, nothing re-modelled:
     b_write        Batch.putMem into the live memdb                                        (Codec/Batch.v, (6))
     b_rotate       newMem: the live memdb becomes the frozen one, fresh live memdb          (Mem/MemDB.v mdb_new)
     b_flush        memCompaction/flushMemdb: the frozen memdb drained through its ITERATOR (Mem/MemDB.v it_next) into the
                    model table WRITER (Codec/Table.v tw_append/tw_close, property C13) with the session's options and the DB's
                    iComparer (Separator/Successor: Codec/IKey.v isep/isucc, property C15); recorded imin/imax = first/last key
                    (tWriter.first/last); installed at pickMemdbLevel (Lsm/Pick.v) by versionStaging.finish; frozen memdb dropped
     b_compact      tableCompaction: inputs chosen by the Lsm/Pick.v model from any seed at any level, merged iteration over the
                    decoded entries of the input FILES, tableCompactionBuilder (Lsm/Builder.v transact, any failure history) with
                    BytesLen = the model writer's offset, every output chunk written by the model writer, finish
     b_trivial_move tableCompaction's move branch
     b_txn_commit   a committed transaction (also DB.Write of an oversized batch): its memdb flushed into one table that a
                    record committed with trivial = false adds at level 0; enabled only with flushed DB memdbs (OpenTransaction)
   The invariant [bfull] = wf_bstate (5) + the step invariant WfLsm.wf_lsm of property C06 on the abstraction + no two stored
   entries with the same (user key, sequence number).
   Hypotheses stated explicitly everywhere: comparer_ok, the generated constants' side conditions, the codec contract of
   property C13 (decompress (compress x) = Some x, compress x <> [] — needed by C13's writer theorem also for NoCompression, where
   the codec is never called), BlockRestartInterval >= 1, per written table the computable size condition write_sizes_ok
   (C13's table_sizes_ok and the file below 2^32 bytes), fresh file numbers, sequence numbers below keyMaxSeq, and for a
   configured filter policy the no-false-negative condition of property C16 on each written file ([table_filter_ok]: a
   boolean on the file, evaluated by the correspondence run on every table of every dumped state; with no policy —
   goleveldb's default — it holds outright; it is NOT proved for the model's bloom filter writer). *)
From GL Require Import Base.Cursor Codec.TableSizes Lsm.Pick Lsm.WfLsm Lsm.C06Steps Lsm.Builder Lsm.BuilderCuts Lsm.WritePath
  Lsm.WritePathTable Lsm.WritePathSteps Lsm.WritePathTheorems Lsm.WritePathTxn Lsm.WritePathHistory.

(* (7a) "The table writer produces files that pass tfile_okb", for the MODEL writer: for every strictly increasing non-empty list
   of stored internal keys (decodable, kind value or deletion), either compression setting, the file table_bytes returns
   passes the byte-level format check of the read path with recorded bounds = first and last key, and Codec/TableCheck.v
   table_check decodes it to exactly the pairs written. *)
Theorem C01_writer_output_ok :
  forall c, comparer_ok c -> forall p, kparams_ok p -> forall tp, tparams_ok tp ->
  forall crc, (forall b, (crc b < 2 ^ 32)%N) ->
  forall compress decompress, (forall x, decompress (compress x) = Some x) -> (forall x, compress x <> []) ->
  forall fname ufc verify o, (1 <= wo_ri o)%N -> forall num kvs data,
  Cursor.sorted (ibc c) kvs -> kvs <> [] -> Forall (fun kv => key_okb p (fst kv) = true) kvs ->
  table_bytes c p tp crc compress o kvs = Some data -> write_sizes_ok c p tp crc compress o kvs = true ->
  (wo_filter o = None \/
   filter_part c tp crc decompress fname ufc verify (mkTF num (key_first kvs) (key_last kvs) data) = true) ->
  tfile_okb c p tp crc decompress fname ufc verify (wo_ri o) (mkTF num (key_first kvs) (key_last kvs) data) = true /\
  tf_pairs c tp crc decompress fname ufc verify (wo_ri o) (mkTF num (key_first kvs) (key_last kvs) data) = kvs /\
  table_check (ibc c) (tf_reader c tp crc decompress fname ufc verify (mkTF num (key_first kvs) (key_last kvs) data)) (wo_ri o) = Some kvs.
Proof. exact writer_output_ok. Qed.
Print Assumptions C01_writer_output_ok.

(* ... the memdb iterator feeds the writer exactly the pairs the read path's abstraction reads (C14's iterator refinement) *)
Theorem C01_memdb_iterator_yields_pairs :
  forall c, comparer_ok c -> forall p, (keyTypeSeek p <= keyTypeVal p)%N -> forall mp, MemDB.mparams_ok mp ->
  forall d, mem_ok c p mp d -> mem_iter_all c mp d = Some (mem_pairs mp d).
Proof. exact WritePathMem.mem_iter_pairs. Qed.
Print Assumptions C01_memdb_iterator_yields_pairs.

(* (7b) Rotation. *)
Theorem C01_rotate_step_bytes :
  forall c, comparer_ok c -> forall p, kparams_ok p -> (keyTypeSeek p <= keyTypeVal p)%N ->
  forall mp, MemDB.mparams_ok mp -> forall tp crc decompress fname ufc verify o, (1 <= wo_ri o)%N ->
  forall st d, bfull c p mp tp crc decompress fname ufc verify o st -> bs_mem st = Some d -> bs_frozen st = None ->
  let A := abs c mp tp crc decompress fname ufc verify (wo_ri o) in
  exists st', b_rotate mp st = Some st' /\ bfull c p mp tp crc decompress fname ufc verify o st' /\
    st_mem (A st') = [] /\ st_frozen (A st') = st_mem (A st) /\ st_levels (A st') = st_levels (A st) /\
    all_entries (A st') = all_entries (A st) /\
    forall k s, wf_bytes k -> (s <= keyMaxSeq p)%N ->
      db_get_bytes c p mp tp crc decompress fname ufc verify st' k s = db_get_bytes c p mp tp crc decompress fname ufc verify st k s.
Proof. exact rotate_bytes. Qed.
Print Assumptions C01_rotate_step_bytes.

(* (7c) Flush: wf_bstate (inside bfull) is preserved; the abstraction of the new state is the L1 flush step of the old one — the
   frozen memdb's entries are now the table the model writer wrote, installed by finish at the level pickMemdbLevel chooses —
   the stored entries are the same, and every read at every sequence number returns what it returned before. *)
Theorem C01_flush_step_bytes :
  forall c, comparer_ok c -> forall p, kparams_ok p -> (keyTypeSeek p <= keyTypeVal p)%N ->
  forall mp, MemDB.mparams_ok mp -> forall tp, tparams_ok tp -> forall crc, (forall b, (crc b < 2 ^ 32)%N) ->
  forall compress decompress, (forall x, decompress (compress x) = Some x) -> (forall x, compress x <> []) ->
  forall fname ufc verify o, (1 <= wo_ri o)%N ->
  forall st d num, bfull c p mp tp crc decompress fname ufc verify o st -> bs_frozen st = Some d ->
  let A := abs c mp tp crc decompress fname ufc verify (wo_ri o) in
  (forall f, In f (files_of st) -> tf_num f <> num) ->
  (forall x, In x (all_entries (A st)) -> (e_seq x <= keyMaxSeq p)%N) ->
  (mem_pairs mp d <> [] -> write_sizes_ok c p tp crc compress o (mem_pairs mp d) = true) ->
  table_filter_ok c p tp crc compress decompress fname ufc verify o (mem_pairs mp d) ->
  exists st', b_flush c p mp tp crc compress decompress fname ufc verify o num st = Some st' /\
    bfull c p mp tp crc decompress fname ufc verify o st' /\
    st_mem (A st') = st_mem (A st) /\ st_frozen (A st') = [] /\
    (mem_pairs mp d = [] -> st_levels (A st') = st_levels (A st)) /\
    (mem_pairs mp d <> [] ->
       finish c true (st_levels (A st))
              (flush_edit c p (file_size (files_of st)) (st_levels (A st)) (wo_gpOverlaps o) (wo_memMaxLevel o)
                          {| t_num := num; t_entries := st_frozen (A st) |}) = POk (st_levels (A st')) /\
       exists f, write_table c p tp crc compress o num (mem_pairs mp d) = Some f /\
                 tfile_okb c p tp crc decompress fname ufc verify (wo_ri o) f = true /\
                 abs_table c tp crc decompress fname ufc verify (wo_ri o) f = {| t_num := num; t_entries := st_frozen (A st) |} /\
                 In f (files_of st')) /\
    same_elems (all_entries (A st)) (all_entries (A st')) /\
    forall k s, wf_bytes k -> (s <= keyMaxSeq p)%N ->
      db_get_bytes c p mp tp crc decompress fname ufc verify st' k s = db_get_bytes c p mp tp crc decompress fname ufc verify st k s.
Proof. exact flush_bytes. Qed.
Print Assumptions C01_flush_step_bytes.

(* (7d) Trivial move. *)
Theorem C01_trivial_move_step_bytes :
  forall c, comparer_ok c -> forall p, kparams_ok p -> (keyTypeSeek p <= keyTypeVal p)%N ->
  forall mp, MemDB.mparams_ok mp -> forall tp crc decompress fname ufc verify o, (1 <= wo_ri o)%N ->
  forall st lvl seed, bfull c p mp tp crc decompress fname ufc verify o st ->
  let A := abs c mp tp crc decompress fname ufc verify (wo_ri o) in
  seed_tables (st_levels (A st)) lvl seed <> [] ->
  exists cm, new_compaction c (file_size (files_of st)) (st_levels (A st)) lvl (wo_expandLimit o lvl)
                            (seed_tables (st_levels (A st)) lvl seed) = POk cm /\
    (trivial (file_size (files_of st)) cm (wo_gpOverlaps o lvl) = true ->
     exists st', b_trivial_move c tp crc decompress fname ufc verify o lvl seed st = Some st' /\
       bfull c p mp tp crc decompress fname ufc verify o st' /\
       st_mem (A st') = st_mem (A st) /\ st_frozen (A st') = st_frozen (A st) /\
       finish c true (st_levels (A st)) (move_edit cm) = POk (st_levels (A st')) /\
       same_elems (all_entries (A st)) (all_entries (A st')) /\
       forall k s, wf_bytes k -> (s <= keyMaxSeq p)%N ->
         db_get_bytes c p mp tp crc decompress fname ufc verify st' k s = db_get_bytes c p mp tp crc decompress fname ufc verify st k s).
Proof. exact move_bytes. Qed.
Print Assumptions C01_trivial_move_step_bytes.

(* (7e) Table compaction, for every level, every seed the picker might choose, every failure history [os] of compactionTransact
   that ends normally, with the drop rule at minSeq: wf_bstate preserved; the abstraction of the new state is the L1
   compaction step (finish of compaction_edit with the builder's tables, which are outputs in the sense of property C06:
   cuts only between different user keys, concatenation = the kept merged entries); nothing new is stored; every read at every
   sequence number >= minSeq — that is, at db.seq and at every live snapshot when minSeq = db.minSeq() — returns the value it
   returned before. *)
Theorem C01_compaction_step_bytes :
  forall c, comparer_ok c -> forall p, kparams_ok p -> (keyTypeSeek p <= keyTypeVal p)%N ->
  forall mp, MemDB.mparams_ok mp -> forall tp, tparams_ok tp -> forall crc, (forall b, (crc b < 2 ^ 32)%N) ->
  forall compress decompress, (forall x, decompress (compress x) = Some x) -> (forall x, compress x <> []) ->
  forall fname ufc verify o, (1 <= wo_ri o)%N ->
  forall st lvl seed os nums minSeq, bfull c p mp tp crc decompress fname ufc verify o st ->
  let A := abs c mp tp crc decompress fname ufc verify (wo_ri o) in
  seed_tables (st_levels (A st)) lvl seed <> [] -> (minSeq < keyMaxSeq p)%N ->
  NoDup nums -> (forall n f, In n nums -> In f (files_of st) -> tf_num f <> n) ->
  exists cm, new_compaction c (file_size (files_of st)) (st_levels (A st)) lvl (wo_expandLimit o lvl)
                            (seed_tables (st_levels (A st)) lvl seed) = POk cm /\
    forall s',
      let deeper := skipn (lvl + 2) (st_levels (A st)) in
      transact c p (file_size (files_of st)) (c_gp cm) (wo_gpOverlaps o lvl) deeper minSeq (wo_strict o) (wo_tableSize o (S lvl))
               (bytes_len c p tp crc compress o) os (map IGood (merge_inputs c (c_t0 cm ++ c_t1 cm))) (bst0 deeper) = (s', TDone) ->
      length nums = length (fin s') ->
      Forall (fun ch => write_sizes_ok c p tp crc compress o (chunk_kvs ch) = true /\
                        table_filter_ok c p tp crc compress decompress fname ufc verify o (chunk_kvs ch)) (fin s') ->
      exists st', b_compact c p tp crc compress decompress fname ufc verify o lvl seed os nums minSeq st = Some st' /\
        bfull c p mp tp crc decompress fname ufc verify o st' /\
        st_mem (A st') = st_mem (A st) /\ st_frozen (A st') = st_frozen (A st) /\
        outputs_of c p cm minSeq deeper (fin s') /\
        finish c true (st_levels (A st)) (compaction_edit cm (mk_outputs nums (fin s'))) = POk (st_levels (A st')) /\
        (forall x, In x (all_entries (A st')) -> In x (all_entries (A st))) /\
        forall k s, wf_bytes k -> (minSeq <= s)%N -> (s <= keyMaxSeq p)%N ->
          bapi (db_get_bytes c p mp tp crc decompress fname ufc verify st' k s) =
          bapi (db_get_bytes c p mp tp crc decompress fname ufc verify st k s).
Proof. exact compact_bytes. Qed.
Print Assumptions C01_compaction_step_bytes.

(* (7e') A committed transaction.  L1 part (the case property C06 left to the correspondence check): installing ONE level-0
   table that is well-formed, under an unused number and newer than every stored entry of its user keys, by a record
   committed with trivial = false, keeps the step invariant; level 0 is a permutation of the old level 0 plus the table. *)
Theorem C01_txn_install_step : forall c p v t, wf_lsm c p v -> PickBase.tbl_ok c p t -> uniq (t_entries t) ->
  (forall i x y, In x (t_entries t) -> In y (LE (lv v i)) -> e_uk x = e_uk y -> (e_seq y < e_seq x)%N) ->
  (forall i s, In s (lv v i) -> t_num s <> t_num t) ->
  exists nv, finish c false v (txn_edit t) = POk nv /\ wf_lsm c p nv /\
    Permutation.Permutation (lv nv 0) (t :: lv v 0) /\ forall l, (0 < l)%nat -> lv nv l = lv v l.
Proof. exact txn_install. Qed.
Print Assumptions C01_txn_install_step.

(* ... and the byte-level step: bfull kept, the stored entries are the old ones plus exactly the stamped records. *)
Theorem C01_txn_step_bytes :
  forall c, comparer_ok c -> forall p, kparams_ok p -> (keyTypeSeek p <= keyTypeVal p)%N ->
  forall mp, MemDB.mparams_ok mp -> forall tp, tparams_ok tp -> forall crc, (forall b, (crc b < 2 ^ 32)%N) ->
  forall compress decompress, (forall x, decompress (compress x) = Some x) -> (forall x, compress x <> []) ->
  forall fname ufc verify o, (1 <= wo_ri o)%N ->
  forall st recs hs num seq, bfull c p mp tp crc decompress fname ufc verify o st ->
  let A := abs c mp tp crc decompress fname ufc verify (wo_ri o) in
  bs_frozen st = None -> mem_is_empty c mp (bs_mem st) = true ->
  (forall x, In x (all_entries (A st)) -> (e_seq x <= seq)%N) ->
  Forall (rec_wf p) recs -> (seq + N.of_nat (length recs) <= keyMaxSeq p)%N -> heights_okl mp hs ->
  (lenN (enc_recs p recs) < 2 ^ 63)%N ->
  (forall f, In f (files_of st) -> tf_num f <> num) ->
  (forall d0 d' hs', MemDB.mdb_new mp = MemDB.Ok d0 ->
     batch_putmem p (ibc c) mp (batch_of p recs) (seq + 1) d0 hs = PmOk d' hs' -> mem_pairs mp d' <> [] ->
     write_sizes_ok c p tp crc compress o (mem_pairs mp d') = true /\
     table_filter_ok c p tp crc compress decompress fname ufc verify o (mem_pairs mp d')) ->
  exists st', b_txn_commit c p mp tp crc compress decompress fname ufc verify o recs hs num seq st = Some st' /\
    bfull c p mp tp crc decompress fname ufc verify o st' /\ bs_mem st' = bs_mem st /\ bs_frozen st' = None /\
    same_elems (all_entries (A st) ++ stamp seq (map (norm_rec p) recs)) (all_entries (A st')).
Proof. exact txn_step. Qed.
Print Assumptions C01_txn_step_bytes.

Theorem C01_bfull_is_wf_bstate :
  forall c p mp tp crc decompress fname ufc verify o st, bfull c p mp tp crc decompress fname ufc verify o st ->
  wf_bstate c p mp tp crc decompress fname ufc verify (wo_ri o) st.
Proof. exact bfull_wf. Qed.
Print Assumptions C01_bfull_is_wf_bstate.

(* (7f) THE CAPSTONE.  For every finite sequence of byte-level steps from the empty DB — writes of batches, rotations, flushes,
   table compactions with any picker choice / seed / failure history, trivial moves, committed transactions, snapshot
   acquisitions and releases —
   that the model executes (brun = Some: each step is enabled, e.g. a flush has a frozen memdb to flush) and whose side
   conditions hold (bops_ok: records well-formed, db.seq stays below keyMaxSeq, heights as randHeight draws them, fresh file
   numbers, the size condition and — when a filter policy is configured — the filter condition of every table written), the
   byte state is well-formed and DB.Get computed on the BYTES at
   db.seq returns, for every key, what the plain map driven by the written batches returns; and a read at the sequence
   number of a snapshot that is still live returns what the plain map returned at the instant the snapshot was taken. *)
Theorem C01_history_bytes :
  forall c, comparer_ok c -> forall p, kparams_ok p -> (keyTypeSeek p <= keyTypeVal p)%N ->
  forall mp, MemDB.mparams_ok mp -> forall tp, tparams_ok tp -> forall crc, (forall b, (crc b < 2 ^ 32)%N) ->
  forall compress decompress, (forall x, decompress (compress x) = Some x) -> (forall x, compress x <> []) ->
  forall fname ufc verify o, (1 <= wo_ri o)%N ->
  forall ops w0 w, w_init mp = Some w0 ->
  brun c p mp tp crc compress decompress fname ufc verify o w0 ops = Some w ->
  bops_ok c p mp tp crc compress decompress fname ufc verify o w0 ops ->
  wf_bstate c p mp tp crc decompress fname ufc verify (wo_ri o) (ws_bs w) /\
  (forall k, wf_bytes k ->
     bapi (db_get_bytes c p mp tp crc decompress fname ufc verify (ws_bs w) k (ws_seq w)) = Some (a_get c k (wmap c p ops))) /\
  (forall ops1 ops2 w1 k, ops = ops1 ++ ops2 ->
     brun c p mp tp crc compress decompress fname ufc verify o w0 ops1 = Some w1 -> In (ws_seq w1) (ws_snaps w) -> wf_bytes k ->
     bapi (db_get_bytes c p mp tp crc decompress fname ufc verify (ws_bs w) k (ws_seq w1)) = Some (a_get c k (wmap c p ops1))).
Proof. exact history_bytes. Qed.
Print Assumptions C01_history_bytes.

(* Non-vacuity of (7): a codec that satisfies the contract, options with NoCompression and no filter policy (block size 16,
   restart interval 2, table size 30 so that the compaction cuts), and a run of ten steps from the empty DB — a batch of three
   Puts, rotation, flush to file 5, a Delete and a Put, a snapshot (at 5), a Put, rotation, flush to file 6, a level-0 table
   compaction of files 6 and 5 whose builder writes two tables (7 and 8, minSeq = 5 because of the snapshot), a Put, rotation,
   flush to file 9, a committed transaction (a Put and a Delete, table 10 at level 0) — that the model executes, that meets every side condition (bops_ok), and whose reads, evaluated, are the plain map's: at db.seq = 9
   a = the last Put, b deleted, c overwritten, d deleted by the transaction, f put by it; at the snapshot c still has its
   first value and a is absent.
   The second example: the same writer with compression ON (the tag codec) writes a file for which the size condition evaluates to
   true and which passes tfile_okb. *)
From GL Require Import Lsm.BatchWriteProofs.
Definition wx_compress (x : bytes) : bytes := 7 :: x.
Definition wx_decompress (y : bytes) : option bytes := match y with 7 :: x => Some x | _ => None end.
Definition wx_o : wopts := mkWO 16 2 false None (fun _ => 30) (fun _ => 1000) (fun _ => 1000) 0 true.
Definition wx_ops : list bop :=
  [ BWrite [(1, [98], [1]); (1, [99], [2]); (1, [100], [3])] [1; 2; 1];
    BRotate; BFlush 5;
    BWrite [(0, [98], []); (1, [101], [4])] [1; 1];
    BSnap;
    BWrite [(1, [99], [9])] [2];
    BRotate; BFlush 6;
    BCompact 0 [6; 5] [o_ok] [7; 8];
    BWrite [(1, [97], [5])] [1];
    BRotate; BFlush 9;
    BTxn [(1, [102], [7]); (0, [100], [])] [1; 1] 10 ].
Local Notation wx_run := (brun bytewise kp mp tblp tbl_crc wx_compress wx_decompress None (fun _ _ _ => true) true wx_o).
Local Notation wx_get w k s := (bapi (db_get_bytes bytewise kp mp tblp tbl_crc wx_decompress None (fun _ _ _ => true) true (ws_bs w) [k] s)).

Ltac wx_in H := repeat (destruct H as [<-|H]; [vm_compute; try discriminate; try reflexivity|]); try destruct H.
Ltac wx_recs := repeat (apply Forall_cons; [split; [vm_compute; auto | repeat (apply Forall_cons; [vm_compute; reflexivity|]); apply Forall_nil]|]); apply Forall_nil.
Ltac wx_heights := repeat (apply Forall_cons; [split; vm_compute; discriminate|]); apply Forall_nil.
Ltac wx_write := split; [wx_recs|split; [vm_compute; reflexivity|split; [wx_heights|vm_compute; reflexivity]]].
Ltac wx_flush := split; [intros f Hf; vm_compute in Hf; wx_in Hf|split; [intros d Hd _; vm_compute in Hd; injection Hd as <-; vm_compute; reflexivity|intros d Hd; left; reflexivity]].

Example C01_write_path_nonvacuous :
  (forall x, wx_decompress (wx_compress x) = Some x) /\ (forall x, wx_compress x <> []) /\ (1 <= wo_ri wx_o)%N /\
  exists w0 w, w_init mp = Some w0 /\ wx_run w0 wx_ops = Some w /\
    bops_ok bytewise kp mp tblp tbl_crc wx_compress wx_decompress None (fun _ _ _ => true) true wx_o w0 wx_ops /\
    ws_seq w = 9 /\ ws_snaps w = [5] /\
    map (map (fun f => tf_num f)) (bs_levels (ws_bs w)) = [[10; 9]; [7; 8]] /\
    map (fun k => wx_get w k 9) [97; 98; 99; 100; 101; 102] =
      [Some (Some [5]); Some None; Some (Some [9]); Some None; Some (Some [4]); Some (Some [7])] /\
    map (fun k => wx_get w k 5) [97; 98; 99; 100; 101; 102] =
      [Some None; Some None; Some (Some [2]); Some (Some [3]); Some (Some [4]); Some None].
Proof.
  split; [reflexivity|]. split; [discriminate|]. split; [vm_compute; discriminate|].
  destruct (w_init mp) as [w0|] eqn:E0; [|vm_compute in E0; discriminate].
  vm_compute in E0. injection E0 as <-.
  eexists. eexists. split; [reflexivity|]. apply and_assoc. split.
  - unfold wx_ops.
    eapply run_ok_cons; [vm_compute; reflexivity|wx_write|].
    eapply run_ok_cons; [vm_compute; reflexivity|exact I|].
    eapply run_ok_cons; [vm_compute; reflexivity|wx_flush|].
    eapply run_ok_cons; [vm_compute; reflexivity|wx_write|].
    eapply run_ok_cons; [vm_compute; reflexivity|exact I|].
    eapply run_ok_cons; [vm_compute; reflexivity|wx_write|].
    eapply run_ok_cons; [vm_compute; reflexivity|exact I|].
    eapply run_ok_cons; [vm_compute; reflexivity|wx_flush|].
    eapply run_ok_cons; [vm_compute; reflexivity| |].
    { split; [apply NoDup_cons; [intros [H|[]]; discriminate|apply NoDup_cons; [intros []|apply NoDup_nil]]|].
      split.
      - intros n f Hn Hf. vm_compute in Hf. destruct Hn as [<-|[<-|[]]]; wx_in Hf.
      - intros cm s' H1 H2. vm_compute in H1. injection H1 as <-. vm_compute in H2. injection H2 as <-.
        match goal with |- Forall _ ?l => let r := eval vm_compute in l in change l with r end.
        repeat (apply Forall_cons; [split; [vm_compute; reflexivity|left; reflexivity]|]). apply Forall_nil. }
    eapply run_ok_cons; [vm_compute; reflexivity|wx_write|].
    eapply run_ok_cons; [vm_compute; reflexivity|exact I|].
    eapply run_ok_cons; [vm_compute; reflexivity|wx_flush|].
    eapply run_ok_cons; [vm_compute; reflexivity| |split; [reflexivity|exact I]].
    split; [wx_recs|]. split; [vm_compute; reflexivity|]. split; [wx_heights|]. split; [vm_compute; reflexivity|].
    split; [intros f Hf; vm_compute in Hf; wx_in Hf|].
    intros d0 d' hs' H1 H2 _. vm_compute in H1. injection H1 as <-. vm_compute in H2. injection H2 as <- _.
    split; [vm_compute; reflexivity|left; reflexivity].
  - vm_compute. repeat split; reflexivity.
Qed.

Example C01_writer_snappy_nonvacuous :
  let o := mkWO 16 2 true None (fun _ => 30) (fun _ => 1000) (fun _ => 1000) 0 true in
  let kvs := [([98; 1; 1; 0; 0; 0; 0; 0; 0], [1]); ([99; 1; 2; 0; 0; 0; 0; 0; 0], [2]); ([100; 0; 3; 0; 0; 0; 0; 0; 0], [])]%N in
  write_sizes_ok bytewise kp tblp tbl_crc wx_compress o kvs = true /\
  match table_bytes bytewise kp tblp tbl_crc wx_compress o kvs with
  | Some data => tfile_okb bytewise kp tblp tbl_crc wx_decompress None (fun _ _ _ => true) true 2 (mkTF 9 (key_first kvs) (key_last kvs) data) = true
  | None => False
  end.
Proof. vm_compute. split; reflexivity. Qed.

(* (P) PREORDER COMPARERS.  LevelDB's Comparer only has to define a total order in which keys that compare equal ARE
   the same user key; it need not be injective (ASCII-case-insensitive order; goleveldb's own test suite has
   numberComparer).  comparer_ok (Base/Order.v) additionally demands cmp a b = Eq <-> a = b; comparer_pre_ok
   (Base/OrderPre.v) replaces that field by reflexivity and compatibility of Eq with the order.  The theorems below are
   the C01 chain (1)-(4) proved from comparer_pre_ok alone: "entry e has user key k" reads cmp c (e_uk e) k = Eq
   (Lsm.vis and History.a_get already read it so), the well-formedness conditions speak about equivalence classes
   (wf_state_pre: uniqE, newer_thanE; uniq_inE), and the plain map is keyed by the class (a Put of another spelling of a
   stored key overwrites it).  The theorems (1)-(4) above are their special cases (C01_get_correct_is_corollary).
   What still assumes the injective contract comparer_ok: the byte-level refinement (5) and everything below it
   (memdb, table, block, batch levels), see props/C01.json. *)
From GL Require Import Base.OrderPre Codec.CiCmp Codec.CiCmpProofs Lsm.CompactPre Lsm.LsmPreProofs Lsm.CompactPreProofs
  Lsm.HistoryPreProofs Lsm.ReorgPreProofs Lsm.WfPreProofs.

Theorem C01_comparer_ok_is_pre : forall c, comparer_ok c -> comparer_pre_ok c.
Proof. exact comparer_ok_pre. Qed.
Print Assumptions C01_comparer_ok_is_pre.

(* (1p) DB.get / version.get on a well-formed layout returns the newest entry of k's CLASS with seq <= s among all
   stored entries, for every preorder comparer ... *)
Theorem C01_get_correct_pre : forall c, comparer_pre_ok c -> forall p, kparams_ok p -> forall st k s,
  wf_state_pre c p st -> lsm_get c p st k s = group_res p (newest c k s (all_entries st) None).
Proof. exact get_correct_pre. Qed.
Print Assumptions C01_get_correct_pre.

(* ... so every spelling of a user key reads the same *)
Theorem C01_get_spelling_irrelevant : forall c, comparer_pre_ok c -> forall p, kparams_ok p -> forall st k k' s,
  wf_state_pre c p st -> cmp c k k' = Eq -> lsm_get c p st k s = lsm_get c p st k' s.
Proof. exact get_spelling_irrelevant. Qed.
Print Assumptions C01_get_spelling_irrelevant.

(* the injective theorem (1) is the special case *)
Theorem C01_get_correct_is_corollary : forall c, comparer_ok c -> forall p, kparams_ok p -> forall st k s,
  wf_state c p st -> lsm_get c p st k s = group_res p (newest c k s (all_entries st) None).
Proof. exact get_correct_from_pre. Qed.
Print Assumptions C01_get_correct_is_corollary.

(* (2p) reads at the current sequence number = the class-keyed plain map *)
Theorem C01_get_is_map_pre : forall c, comparer_pre_ok c -> forall p ops k,
  hops_ok c p (h_init) ops ->
  store_get c p (hrun ops) k (h_seq (hrun ops)) = a_get c k (map_of c p ops).
Proof. exact get_is_map_pre. Qed.
Print Assumptions C01_get_is_map_pre.

Theorem C01_get_is_map_spelling : forall c, comparer_pre_ok c -> forall p ops k k',
  hops_ok c p (h_init) ops -> cmp c k k' = Eq ->
  store_get c p (hrun ops) k (h_seq (hrun ops)) = store_get c p (hrun ops) k' (h_seq (hrun ops)).
Proof. exact get_is_map_spelling. Qed.
Print Assumptions C01_get_is_map_spelling.

(* (3p) the reorganisations are admissible *)
Theorem C01_rearrangement_ok_pre : forall c, comparer_pre_ok c -> forall p h s',
  uniq_inE c (h_store h) -> same_elems (h_store h) s' -> reorg_ok c p h s'.
Proof. exact rearrangement_ok_pre. Qed.
Print Assumptions C01_rearrangement_ok_pre.

Theorem C01_compaction_reorg_ok_pre : forall c, comparer_pre_ok c -> forall p, kparams_ok p ->
  forall minSeq base, (minSeq < keyMaxSeq p)%N -> forall I O,
  kinds_ok p I -> uniqE c I -> uniq_inE c (I ++ O) ->
  (forall o i, In o O -> In i I -> cmp c (e_uk o) (e_uk i) = Eq ->
     (e_seq i < e_seq o)%N \/ ((e_seq o < e_seq i)%N /\ base (e_uk i) = false)) ->
  forall h s', same_elems (h_store h) (I ++ O) ->
  same_elems s' (drop_run c p minSeq base None (isort c I) ++ O) ->
  (forall q, protected h q -> (minSeq <= q)%N) ->
  reorg_ok c p h s'.
Proof. exact compaction_reorg_ok_pre. Qed.
Print Assumptions C01_compaction_reorg_ok_pre.

(* (4p) the class-based certificates the correspondence check evaluates under the non-injective comparer (id 4) *)
Theorem C01_wf_versioncb_sound : forall c, comparer_pre_ok c -> forall p lvls,
  wf_versioncb c p lvls = true ->
  wf_state_pre c p {| st_mem := []; st_frozen := []; st_aux := []; st_levels := lvls |}.
Proof. exact wf_versioncb_sound. Qed.
Print Assumptions C01_wf_versioncb_sound.

Theorem C01_certificatec_sound : forall c, comparer_pre_ok c -> forall p, kparams_ok p ->
  forall minSeq deeper I O outs,
  compaction_certc c p minSeq deeper I O outs = true ->
  concat outs = drop_run c p minSeq (is_base c deeper) None (isort c I) ->
  forall k s, (minSeq <= s)%N ->
  History.res p (newest c k s (concat outs ++ O) None) = History.res p (newest c k s (I ++ O) None).
Proof. exact certificatec_sound. Qed.
Print Assumptions C01_certificatec_sound.

(* Non-vacuity with the harness's non-injective comparer (id 4, ASCII case-insensitive): it satisfies the preorder
   contract and NOT the injective one ("Key" = [75;101;121], "KEY" = [75;69;89], "key" = [107;101;121] are one key). *)
Example C01_casefold_is_preorder_not_injective :
  comparer_pre_ok cicmp /\ ~ comparer_ok cicmp /\ cmp cicmp [75; 101; 121]%N [75; 69; 89]%N = Eq.
Proof. split; [exact cicmp_pre_ok|]. split; [exact cicmp_not_injective|exact cicmp_Key_KEY]. Qed.

Definition cx_e (u : bytes) (s kd v : N) : entry := {| e_uk := u; e_seq := s; e_kind := kd; e_val := [v] |}.
Definition cx_Key : bytes := [75; 101; 121]%N.
Definition cx_KEY : bytes := [75; 69; 89]%N.
Definition cx_key : bytes := [107; 101; 121]%N.
(* "Key" was put (seq 3) and flushed down to level 1; then "KEY" deleted (seq 7, level 0); "a" untouched *)
Definition cx_levels : list (list table) :=
  [ [ {| t_num := 9; t_entries := [cx_e cx_KEY 7 0 0] |} ];
    [ {| t_num := 5; t_entries := [cx_e [97]%N 2 1 20; cx_e cx_Key 3 1 30] |} ] ].
Definition cx_st : lstate := {| st_mem := []; st_frozen := []; st_aux := []; st_levels := cx_levels |}.

Example C01_casefold_nonvacuous :
  wf_versioncb cicmp kp cx_levels = true /\
  (* every spelling of the deleted key reads "not found" now, and the old value at sequence number 5 *)
  api_of (lsm_get cicmp kp cx_st cx_key 9) = None /\ api_of (lsm_get cicmp kp cx_st cx_Key 9) = None /\
  api_of (lsm_get cicmp kp cx_st cx_KEY 5) = Some [30]%N /\ api_of (lsm_get cicmp kp cx_st [65]%N 9) = Some [20]%N /\
  (* the full compaction (no snapshot: minSeq = 7, everything at base level) drops the marker AND the old value *)
  drop_run cicmp kp 7 (fun _ => true) None (isort cicmp [cx_e cx_KEY 7 0 0; cx_e [97]%N 2 1 20; cx_e cx_Key 3 1 30]) =
    [cx_e [97]%N 2 1 20] /\
  (* the class-keyed plain map: Put "Key", Delete "KEY" *)
  a_get cicmp cx_key (map_of cicmp kp [HWrite [(1, cx_Key, [30])]%N; HWrite [(0, cx_KEY, [])]%N]) = None /\
  a_get cicmp cx_KEY (map_of cicmp kp [HWrite [(1, cx_Key, [30])]%N; HWrite [(1, cx_key, [31])]%N]) = Some [31]%N.
Proof. repeat split; vm_compute; reflexivity. Qed.

(* The seeded change C01_r2 in the model: deciding "same user key as the previous entry" by BYTE equality (the drop
   rule run with the bytewise comparer's equality on the cicmp-sorted merge) keeps the old value of the deleted key
   while the marker is dropped at base level: the read of the deleted key returns the old value.  The rule with the
   user comparer deciding (drop_rule_sound_pre) does not. *)
Example C01_bytes_equal_drop_rule_refuted :
  let I := isort cicmp [cx_e cx_KEY 7 0 0; cx_e cx_Key 3 1 30] in
  CompactProofs.res kp (newest cicmp cx_KEY 7 I None) = None /\
  CompactProofs.res kp (newest cicmp cx_KEY 7 (drop_run cicmp kp 7 (fun _ => true) None I) None) = None /\
  CompactProofs.res kp (newest cicmp cx_KEY 7 (drop_run bytewise kp 7 (fun _ => true) None I) None) = Some [30]%N.
Proof. repeat split; vm_compute; reflexivity. Qed.
