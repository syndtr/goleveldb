(* Props/C12.v — property C12: journal framing round-trips and contains damage.
   Each theorem is closed by a lemma of Codec/Journal*Proofs.v and followed by Print Assumptions;
   the three examples at the end run the models on a 32-byte-block instance by evaluation.
   All theorems hold for every constant record satisfying jparams_ok (re-proved for the
   constants of the current source in Gen/InstJournalOk.v: jp_ok) and for EVERY checksum
   function crc : bytes -> N. *)
From GL Require Import Base.Bytes Codec.Crc Codec.Journal Codec.JournalSpec Codec.JournalReaderProofs
  Codec.JournalWriterProofs Codec.JournalProofs Codec.JournalDamageProofs Codec.JournalCutProofs Codec.JournalZeroTailProofs Gen.InstJournalOk.

(* 0. The writer model never panics / runs out of fuel: jwrite is the output of a completed run. *)
Theorem C12_writer_total : forall crc p, jparams_ok p -> forall fl rs,
  exists s, jwrite_res crc p fl rs = WOk s /\ w_out s = jwrite crc p fl rs.
Proof. exact writer_total. Qed.
Print Assumptions C12_writer_total.

(* 1. Round trip: any records, any sizes, any flush pattern, both modes, checksums on or off. *)
Theorem C12_roundtrip : forall crc p, jparams_ok p -> forall strict ck fl rs,
  jread crc p strict ck (jwrite crc p fl rs) = map Rec rs.
Proof. exact roundtrip. Qed.
Print Assumptions C12_roundtrip.

(*    ... and the dropper is never called (jread_log is the full observation list). *)
Theorem C12_roundtrip_no_drop : forall crc p, jparams_ok p -> forall strict ck fl rs,
  jread_log crc p strict ck (jwrite crc p fl rs) = map Rec rs.
Proof. exact roundtrip_log. Qed.
Print Assumptions C12_roundtrip_no_drop.

(* 2. The bytes written do not depend on where Flush is called. *)
Theorem C12_flush_irrelevant : forall crc p, jparams_ok p -> forall fl1 fl2 rs,
  jwrite crc p fl1 rs = jwrite crc p fl2 rs.
Proof. exact flush_irrelevant. Qed.
Print Assumptions C12_flush_irrelevant.

(*    ... nor on how the payload of a record is split into Write calls (jwrite_pieces: each
      record is a list of pieces written by successive Write calls, as session records are). *)
Theorem C12_split_writes_irrelevant : forall crc p, jparams_ok p -> forall fl fl' rss,
  jwrite_pieces crc p fl rss = jwrite crc p fl' (map (@concat N) rss).
Proof. exact split_writes_irrelevant. Qed.
Print Assumptions C12_split_writes_irrelevant.

Theorem C12_writer_pieces_total : forall crc p, jparams_ok p -> forall fl rss,
  exists s, jwrite_pieces_res crc p fl rss = WOk s /\ w_out s = jwrite_pieces crc p fl rss.
Proof. exact writer_pieces_total. Qed.
Print Assumptions C12_writer_pieces_total.

(* 3. The reader is total on arbitrary bytes: every slice/index expression stays in range
      (no Panic) and every loop terminates within the fuel given (no OutOfFuel). *)
Theorem C12_no_panic : forall crc p, jparams_ok p -> forall strict ck b,
  Forall (fun o => o <> Panic /\ o <> OutOfFuel) (jread_log crc p strict ck b).
Proof. exact no_panic. Qed.
Print Assumptions C12_no_panic.

(* 3b. The refinement results everything else is proved through (and that make the models
      comparable with the code at two levels): the reader model is the record assembler run
      over the block parser's events; the writer model's bytes are the rendering of the layout. *)
Theorem C12_reader_factor : forall crc p, jparams_ok p -> forall strict ck b,
  jread_log crc p strict ck b = assemble p strict AIdle (stream_events crc p ck b).
Proof. exact reader_factor. Qed.
Print Assumptions C12_reader_factor.

Theorem C12_writer_layout : forall crc p, jparams_ok p -> forall fl rs,
  jwrite crc p fl rs = render_lay crc p (layout p rs).
Proof. exact jwrite_layout. Qed.
Print Assumptions C12_writer_layout.

(* 4. Truncation at any offset n: the reader yields a prefix of the records written, followed
      by nothing or by exactly one Skipped (tolerant) / one Err (strict); hence never a record
      that was not written. *)
Theorem C12_truncation : forall crc p, jparams_ok p -> forall strict ck fl rs n,
  exists m t,
    jread crc p strict ck (firstn n (jwrite crc p fl rs)) = map Rec (firstn m rs) ++ t /\
    (t = [] \/ t = [if strict then Err else Skipped]).
Proof. exact truncation. Qed.
Print Assumptions C12_truncation.

(*    ... and every record that lies wholly inside the first n bytes is among them: if the
      stream written for the first j records is at most n bytes long, the result starts with
      those j records. *)
Theorem C12_truncation_complete : forall crc p, jparams_ok p -> forall strict ck fl rs n j,
  (length (jwrite crc p fl (firstn j rs)) <= n)%nat ->
  exists t, jread crc p strict ck (firstn n (jwrite crc p fl rs)) = map Rec (firstn j rs) ++ t.
Proof. exact truncation_complete. Qed.
Print Assumptions C12_truncation_complete.

(*    ... and no other: the number m of records yielded is EXACTLY the number of records whose
      bytes lie wholly inside the first n bytes (the stream written for the first m records is at
      most n bytes long, and m is the largest such number). *)
Theorem C12_truncation_exact : forall crc p, jparams_ok p -> forall strict ck fl rs n,
  exists m t,
    jread crc p strict ck (firstn n (jwrite crc p fl rs)) = map Rec (firstn m rs) ++ t /\
    (t = [] \/ t = [if strict then Err else Skipped]) /\
    (m <= length rs)%nat /\
    (length (jwrite crc p fl (firstn m rs)) <= n)%nat /\
    (forall j, (j <= length rs)%nat ->
               (length (jwrite crc p fl (firstn j rs)) <= n)%nat -> (j <= m)%nat).
Proof. exact truncation_exact. Qed.
Print Assumptions C12_truncation_exact.

(* 4b. The block parser is sequential: ANY byte string d that agrees with the written stream on
      its first n bytes (a cut, a cut followed by zeros or garbage, damage after offset n, ...) is
      read, in either mode, with or without checksums, and with no hypothesis on the rest of d,
      as the records written wholly inside those n bytes followed by something. *)
Theorem C12_prefix_complete : forall crc p, jparams_ok p -> forall strict ck fl rs d n j,
  firstn n d = firstn n (jwrite crc p fl rs) ->
  (length (jwrite crc p fl (firstn j rs)) <= n)%nat ->
  exists t, jread crc p strict ck d = map Rec (firstn j rs) ++ t.
Proof. exact prefix_complete. Qed.
Print Assumptions C12_prefix_complete.

(* 5. Damage.  no_forgery ck rs d is a COMPUTABLE boolean on the concrete damaged stream d:
      d has as many blocks as the stream written for rs and, in every block, what the block
      parser accepts is a run of that block's original chunks from the block start, the rest of
      the block being reported as dropped (i.e. no damaged or displaced chunk passes the
      type / length / checksum tests).  It is a hypothesis because a 32-bit checksum cannot
      exclude collisions; it holds of every undamaged stream (C12_no_forgery_intact) and the
      harness evaluates its Go counterpart on every damaged case it generates.
      Tolerant mode: the records yielded are a sub-sequence of the records written (nothing
      invented, order kept), and every record all of whose chunks lie in blocks that are
      byte-identical to the written ones is kept. *)
Theorem C12_damage_contained : forall crc p, jparams_ok p -> forall ck fl rs d,
  no_forgery crc p ck rs d = true ->
  exists keep,
    length keep = length rs /\
    recs_of (jread crc p false ck d) = select keep rs /\
    forall k, (k < length rs)%nat ->
      (forall i, In i (rec_blocks p rs k) ->
         nth i (stream_blocks p d) [] = nth i (stream_blocks p (jwrite crc p fl rs)) []) ->
      nth k keep false = true.
Proof. exact damage_contained. Qed.
Print Assumptions C12_damage_contained.

(*    Strict mode: a prefix of the records, then nothing (no parsed chunk was affected) or Err. *)
Theorem C12_damage_strict : forall crc p, jparams_ok p -> forall ck rs d,
  no_forgery crc p ck rs d = true ->
  exists m t, jread crc p true ck d = map Rec (firstn m rs) ++ t /\ (t = [] \/ t = [Err]).
Proof. exact damage_strict. Qed.
Print Assumptions C12_damage_strict.

(*    ... and the prefix contains every record lying entirely before the damage: if d agrees
      with the written stream on its first n bytes (n = offset of the first altered byte; for
      damage confined to blocks b, b+1, ... take n = b * blockSize) then every one of the first j
      records, the stream written for which is at most n bytes long, is yielded. *)
Theorem C12_damage_strict_complete : forall crc p, jparams_ok p -> forall ck fl rs d n j,
  no_forgery crc p ck rs d = true ->
  firstn n d = firstn n (jwrite crc p fl rs) ->
  (j <= length rs)%nat ->
  (length (jwrite crc p fl (firstn j rs)) <= n)%nat ->
  exists m t, jread crc p true ck d = map Rec (firstn m rs) ++ t /\ (t = [] \/ t = [Err]) /\
              (j <= m)%nat /\ (m <= length rs)%nat.
Proof. exact damage_strict_complete. Qed.
Print Assumptions C12_damage_strict_complete.

(*    Tolerant mode, same situation: the records yielded are the records written wholly inside
      the intact first n bytes, all of them, followed by a sub-sequence of the others. *)
Theorem C12_damage_contained_prefix : forall crc p, jparams_ok p -> forall ck fl rs d n j,
  no_forgery crc p ck rs d = true ->
  firstn n d = firstn n (jwrite crc p fl rs) ->
  (length (jwrite crc p fl (firstn j rs)) <= n)%nat ->
  exists keep, recs_of (jread crc p false ck d) = firstn j rs ++ select keep (skipn j rs).
Proof. exact damage_contained_prefix. Qed.
Print Assumptions C12_damage_contained_prefix.

(* 6. Tails: what a crash leaves of an unsynced journal on some file systems (the images C04
      builds: vstor TailCut / TailCutZero / TailCutJunk) is the stream cut at a byte offset n
      followed by other bytes - zeros or garbage - up to the written length.
      For ANY tail (any bytes, any length), either mode, no hypothesis: the records wholly inside
      the cut are yielded first. *)
Theorem C12_tail_complete : forall crc p, jparams_ok p -> forall strict ck fl rs n tail j,
  (n <= length (jwrite crc p fl rs))%nat ->
  (length (jwrite crc p fl (firstn j rs)) <= n)%nat ->
  exists t, jread crc p strict ck (firstn n (jwrite crc p fl rs) ++ tail) = map Rec (firstn j rs) ++ t.
Proof. exact tail_complete. Qed.
Print Assumptions C12_tail_complete.

(*    ZERO tail (any number of zero bytes after the cut), EVERY checksum function, checksums
      verified or not, both modes, no hypothesis: the reader yields exactly the m records wholly
      inside the cut (m as in C12_truncation_exact), then at most ONE further record.  No chunk is
      ever parsed out of the zeros; the one further record can only stem from the chunk the cut
      falls in, when its header survived (its payload is then zero-filled: accepted if the
      checksum is not verified, collides, or the lost bytes were zeros anyway - the two witnesses
      of C12_zero_tail_witnesses show that "at most one" cannot be improved to "none"). *)
Theorem C12_zero_tail : forall crc p, jparams_ok p -> forall strict ck fl rs n z,
  exists m t,
    jread crc p strict ck (firstn n (jwrite crc p fl rs) ++ repeat 0 z) = map Rec (firstn m rs) ++ t /\
    (m <= length rs)%nat /\
    (length (jwrite crc p fl (firstn m rs)) <= n)%nat /\
    (forall j, (j <= length rs)%nat ->
               (length (jwrite crc p fl (firstn j rs)) <= n)%nat -> (j <= m)%nat) /\
    (length (recs_of t) <= 1)%nat.
Proof. exact zero_tail. Qed.
Print Assumptions C12_zero_tail.

(*    ... and, tolerant mode, when the checksum detects the tail (no_forgery evaluated on the
      image: zeros or garbage of the same length), nothing is invented after them: what follows
      is a sub-sequence of the remaining records (for a zero tail: at most one of them). *)
Theorem C12_tail_contained : forall crc p, jparams_ok p -> forall ck fl rs n tail j,
  (n <= length (jwrite crc p fl rs))%nat ->
  no_forgery crc p ck rs (firstn n (jwrite crc p fl rs) ++ tail) = true ->
  (length (jwrite crc p fl (firstn j rs)) <= n)%nat ->
  exists keep,
    recs_of (jread crc p false ck (firstn n (jwrite crc p fl rs) ++ tail))
    = firstn j rs ++ select keep (skipn j rs).
Proof. exact tail_contained. Qed.
Print Assumptions C12_tail_contained.

Theorem C12_no_forgery_intact : forall crc p, jparams_ok p -> forall ck fl rs,
  no_forgery crc p ck rs (jwrite crc p fl rs) = true.
Proof. exact no_forgery_intact. Qed.
Print Assumptions C12_no_forgery_intact.

(* The constants of the current source satisfy the side conditions. *)
Theorem C12_params_ok : jparams_ok jp.
Proof. exact jp_ok. Qed.
Print Assumptions C12_params_ok.

(* Non-vacuity: a concrete run with 32-byte blocks (same header size and type codes), the real
   CRC: an empty record, a record that leaves exactly 7 bytes in the block (empty first chunk
   follows), a 3-block record. *)
Example C12_nonvacuous :
  jparams_ok jp_small /\
  let rs := [[]; [1;2;3;4;5;6;7;8;9;10;11]; [5]; repeat 9 60] in
  jread jcrc jp_small true true (jwrite jcrc jp_small [true; false] rs) = map Rec rs /\
  jread jcrc jp_small false true (firstn 39 (jwrite jcrc jp_small [] rs)) = [Rec []; Rec [1;2;3;4;5;6;7;8;9;10;11]; Skipped] /\
  (* one payload byte of the 3-block record flipped: the hypothesis of the damage theorems holds
     with the real CRC-32C, the damaged record is skipped, everything else is read *)
  let s := jwrite jcrc jp_small [] rs in
  let d := firstn 70 s ++ [77] ++ skipn 71 s in
  no_forgery jcrc jp_small true rs d = true /\
  jread jcrc jp_small false true d = [Rec []; Rec [1;2;3;4;5;6;7;8;9;10;11]; Rec [5]; Skipped] /\
  jread jcrc jp_small true true d = [Rec []; Rec [1;2;3;4;5;6;7;8;9;10;11]; Rec [5]; Err] /\
  map (rec_blocks jp_small rs) [0; 1; 2; 3]%nat = [[0]; [0]; [0; 1]; [1; 2; 3]]%nat.
Proof. split; [exact jp_small_ok|]. vm_compute. repeat split; reflexivity. Qed.

(* Non-vacuity of the cut / damage-prefix / tail theorems on the same 32-byte-block instance
   (record k ends at stream offset 7, 25, 40, 121): a cut at 39 yields exactly 2 records; the
   flipped byte at offset 70 leaves the 3 records wholly before it; a cut at 50 followed by zeros
   or by 255s up to the written length satisfies no_forgery with the real CRC-32C and yields the 3
   records inside the cut. *)
Example C12_nonvacuous_cut :
  let rs := [[]; [1;2;3;4;5;6;7;8;9;10;11]; [5]; repeat 9 60] in
  let s := jwrite jcrc jp_small [] rs in
  map (fun j => length (jwrite jcrc jp_small [] (firstn j rs))) [0;1;2;3;4]%nat = [0;7;25;40;121]%nat /\
  jread jcrc jp_small true true (firstn 39 s) = map Rec (firstn 2 rs) ++ [Err] /\
  (let d := firstn 70 s ++ [77] ++ skipn 71 s in
   no_forgery jcrc jp_small true rs d = true /\ firstn 70 d = firstn 70 s /\
   jread jcrc jp_small true true d = map Rec (firstn 3 rs) ++ [Err]) /\
  (let d := firstn 50 s ++ repeat 0 71 in
   no_forgery jcrc jp_small true rs d = true /\
   recs_of (jread jcrc jp_small false true d) = firstn 3 rs ++ select [] (skipn 3 rs)) /\
  (let d := firstn 50 s ++ repeat 255 71 in
   no_forgery jcrc jp_small true rs d = true /\
   recs_of (jread jcrc jp_small false true d) = firstn 3 rs ++ select [] (skipn 3 rs)).
Proof. vm_compute. repeat split; reflexivity. Qed.

(* Why "a zero tail yields exactly the records inside the cut" is NOT a theorem: (1) a record
   whose bytes beyond the cut are zeros anyway is intact in the image and is yielded (records end
   at 8, 21, 29; cut at 18 = inside the payload of the second one); (2) with checksum
   verification off (opt.StrictJournalChecksum cleared) a chunk whose header survived the cut is
   accepted with a zero-filled payload: a record that was never written (no_forgery is false). *)
Example C12_zero_tail_witnesses :
  (let rz := [[1]; [0;0;0;0;0;0]; [2]] in
   let s := jwrite jcrc jp_small [] rz in
   map (fun j => length (jwrite jcrc jp_small [] (firstn j rz))) [1;2;3]%nat = [8;21;29]%nat /\
   jread jcrc jp_small false true (firstn 18 s ++ repeat 0 11) = [Rec [1]; Rec [0;0;0;0;0;0]]) /\
  (let rs := [[]; [1;2;3;4;5;6;7;8;9;10;11]; [5]; repeat 9 60] in
   let d := firstn 14 (jwrite jcrc jp_small [] rs) ++ repeat 0 107 in
   jread jcrc jp_small false false d = [Rec []; Rec [0;0;0;0;0;0;0;0;0;0;0]] /\
   no_forgery jcrc jp_small false rs d = false).
Proof. vm_compute. repeat split; reflexivity. Qed.
