(* Props/C15.v — property C15: internal key order and index-key shortening obey their laws.
   Each theorem is closed by a lemma of Base/ or Codec/ (the probe and make_ikey ones at the constants
   kp of the current source, Gen/ConstsOk.v) and followed by Print Assumptions; the three examples
   are checked in place, by evaluation.  Items 1-6 are under the contract comparer_ok (Base/Order.v),
   items 7-8 under the weaker comparer_pre_ok (Base/OrderPre.v). *)
From GL Require Import Base.Order Base.BytesProofs Base.OrderProofs Codec.BytesCmp Codec.BytesCmpProofs
  Codec.IKey Codec.IKeyProofs Codec.IKeyProbeProofs Gen.ConstsOk.
From GL Require Import Base.OrderPre Codec.IKeyPreProofs Codec.IKeyProbePreProofs Codec.CiCmp Codec.CiCmpProofs.

(* 1. The internal order is a strict total order for every valid comparer; Eq iff identical. *)
Theorem C15_icmp_eq : forall c, comparer_ok c -> forall a b, icmp c a b = Eq <-> a = b.
Proof. exact icmp_eq. Qed.
Print Assumptions C15_icmp_eq.

Theorem C15_icmp_antisym : forall c, comparer_ok c -> forall a b, icmp c b a = CompOpp (icmp c a b).
Proof. exact icmp_opp. Qed.
Print Assumptions C15_icmp_antisym.

Theorem C15_icmp_trans : forall c, comparer_ok c -> forall a b d,
  icmp c a b = Lt -> icmp c b d = Lt -> icmp c a d = Lt.
Proof. exact icmp_trans. Qed.
Print Assumptions C15_icmp_trans.

Theorem C15_icmp_total : forall c, comparer_ok c -> forall a b,
  icmp c a b = Lt \/ a = b \/ icmp c b a = Lt.
Proof. exact icmp_total. Qed.
Print Assumptions C15_icmp_total.

(* 2. User key ascending, and for equal user keys newest (larger packed number) first.
      (C15_ukey_ascending holds for any c: its proof does not use comparer_ok.) *)
Theorem C15_ukey_ascending : forall c, comparer_ok c -> forall a b,
  cmp c (uk a) (uk b) = Lt -> icmp c a b = Lt.
Proof. intros c _. exact (icmp_ukey_lt c). Qed.
Print Assumptions C15_ukey_ascending.

Theorem C15_newest_first : forall c, comparer_ok c -> forall u m n,
  icmp c {| uk := u; num := m |} {| uk := u; num := n |} = Lt <-> (n < m)%N.
Proof. exact icmp_same_ukey. Qed.
Print Assumptions C15_newest_first.

(* 3. Probe placement: (k, s, Seek) sorts after every entry of k newer than s and not after any
      entry of k with seq <= s — for the constants of the current source (kp, Gen/ConstsOk.v).
      Entries of other user keys are placed by user key alone: the first disjunct of 3b. *)
Theorem C15_probe_after_newer : forall c, comparer_ok c -> forall k s s' t,
  (t <= keyTypeSeek kp)%N ->
  icmp c {| uk := k; num := pack s' t |} (probe kp k s) = Lt <-> (s < s')%N.
Proof. intros c ok. exact (probe_after_newer c ok kp kp_ok). Qed.
Print Assumptions C15_probe_after_newer.

Theorem C15_probe_not_after_older : forall c, comparer_ok c -> forall k s s' t,
  (t <= keyTypeSeek kp)%N -> (s' <= s)%N ->
  icmp c (probe kp k s) {| uk := k; num := pack s' t |} <> Gt.
Proof. intros c ok. exact (probe_not_after_older c ok kp). Qed.
Print Assumptions C15_probe_not_after_older.

(* 3b. Probe placement, complete: over ALL entries (any user key), the entries sorting strictly
      before the probe (k, s, Seek) are exactly those with a smaller user key and those of k newer
      than s.  Lifted to any run sorted by the internal order and split at the probe: nothing
      before the split is an entry of k visible at s; the entry the seek lands on, if it carries
      k, is visible at s and no visible entry of k in the run is newer; if it carries another
      key, k has no visible entry in the run at all. *)
Theorem C15_probe_precedes_iff : forall c, comparer_ok c -> forall e s' t k s,
  num e = pack s' t -> (t <= keyTypeSeek kp)%N ->
  icmp c e (probe kp k s) = Lt <-> (cmp c (uk e) k = Lt \/ (uk e = k /\ (s < s')%N)).
Proof. intros c ok. exact (probe_precedes_iff c ok kp kp_ok). Qed.
Print Assumptions C15_probe_precedes_iff.

Theorem C15_probe_lands_on_newest_visible : forall c, comparer_ok c -> forall l1 e l2 k s,
  sorted c (l1 ++ e :: l2) ->
  (forall x, In x (l1 ++ e :: l2) -> trailer_ok kp x) ->
  (forall x, In x l1 -> icmp c x (probe kp k s) = Lt) ->
  icmp c e (probe kp k s) <> Lt ->
  (forall x, In x l1 -> ~ (uk x = k /\ (seq_of x <= s)%N)) /\
  (uk e = k -> (seq_of e <= s)%N /\
     forall x, In x (l1 ++ e :: l2) -> uk x = k -> (seq_of x <= s)%N -> (seq_of x <= seq_of e)%N) /\
  (uk e <> k -> forall x, In x (l1 ++ e :: l2) -> ~ (uk x = k /\ (seq_of x <= s)%N)).
Proof. intros c ok. exact (probe_lands_on_newest_visible c ok kp kp_ok). Qed.
Print Assumptions C15_probe_lands_on_newest_visible.

(* 4. Shortened index keys: a < isep a b < b, b < isucc b, for every valid comparer, including
      ones whose Separator/Successor return nil (None) or an unshortened string.
      (C15_isucc_law holds for any c: its proof does not use comparer_ok.) *)
Theorem C15_isep_law : forall c, comparer_ok c -> forall p a b x,
  isep c p a b = Some x -> icmp c a x = Lt /\ icmp c x b = Lt.
Proof. intros c ok p. exact (isep_law c ok p). Qed.
Print Assumptions C15_isep_law.

Theorem C15_isucc_law : forall c, comparer_ok c -> forall p b x,
  isucc c p b = Some x -> icmp c b x = Lt.
Proof. intros c _ p. exact (isucc_law c p). Qed.
Print Assumptions C15_isucc_law.

(* 5. The built-in comparer (model of bytes_comparer.go) and the harness's custom comparers
      satisfy the contract. *)
Theorem C15_bytewise_ok : comparer_ok bytewise.
Proof. exact bytewise_ok. Qed.
Print Assumptions C15_bytewise_ok.

Theorem C15_shortlex_ok : comparer_ok shortlex.
Proof. exact shortlex_ok. Qed.
Print Assumptions C15_shortlex_ok.

Theorem C15_xorcmp_ok : forall m, comparer_ok (xorcmp m).
Proof. exact xorcmp_ok. Qed.
Print Assumptions C15_xorcmp_ok.

(* 6. Byte-level encoding of internal keys round-trips. *)
Theorem C15_split_encode : forall k, (num k < 2 ^ 64)%N -> split_ikey (encode_ikey k) = Some k.
Proof. exact split_encode. Qed.
Print Assumptions C15_split_encode.

Theorem C15_encode_split : forall b k, wf_bytes b -> split_ikey b = Some k -> encode_ikey k = b.
Proof. exact encode_split. Qed.
Print Assumptions C15_encode_split.

Theorem C15_make_ikey_bound : forall u s t k, make_ikey kp u s t = MkOk k ->
  (num k < 2 ^ 64)%N /\ uk k = u /\ num k = pack s t.
Proof. intros u s t k. exact (make_ikey_bound kp u s t k kp_ok). Qed.
Print Assumptions C15_make_ikey_bound.

(* Non-vacuity: concrete keys meeting the hypotheses. *)
Example C15_nonvacuous :
  comparer_ok bytewise /\
  isep bytewise kp {| uk := [1;2;3]%N; num := pack 5 1 |} {| uk := [1;9]%N; num := pack 7 1 |}
    = Some {| uk := [1;3]%N; num := keyMaxNum kp |} /\
  icmp bytewise {| uk := [1]%N; num := pack 9 1 |} (probe kp [1]%N 5) = Lt.
Proof. split; [exact bytewise_ok|]. split; vm_compute; reflexivity. Qed.

(* Non-vacuity of 3b: a sorted run [a@9; b@7 | b@4; b@2; c@1] split at the probe (b, 5). *)
Example C15_probe_run_nonvacuous :
  let a := [1]%N in let b := [2]%N in let d := [3]%N in
  let l1 := [ {| uk := a; num := pack 9 1 |}; {| uk := b; num := pack 7 1 |} ] in
  let e := {| uk := b; num := pack 4 0 |} in
  let l2 := [ {| uk := b; num := pack 2 1 |}; {| uk := d; num := pack 1 1 |} ] in
  sorted bytewise (l1 ++ e :: l2) /\
  (forall x, In x (l1 ++ e :: l2) -> trailer_ok kp x) /\
  (forall x, In x l1 -> icmp bytewise x (probe kp b 5) = Lt) /\
  icmp bytewise e (probe kp b 5) <> Lt /\ uk e = b /\ seq_of e = 4%N.
Proof.
  cbv zeta. split; [vm_compute; tauto|]. split.
  - intros x Hx. cbn in Hx.
    destruct Hx as [<-|[<-|[<-|[<-|[<-|[]]]]]];
      [exists 9%N, 1%N | exists 7%N, 1%N | exists 4%N, 0%N | exists 2%N, 1%N | exists 1%N, 1%N];
      (split; [vm_compute; reflexivity | vm_compute; discriminate]).
  - split; [intros x Hx; cbn in Hx; destruct Hx as [<-|[<-|[]]]; vm_compute; reflexivity|].
    split; [vm_compute; discriminate|]. split; vm_compute; reflexivity.
Qed.

(* 7. The two statements of 3b under the weaker comparer contract comparer_pre_ok (total preorder:
      keys comparing Eq are one user key, e.g. a case-insensitive order): "carries k" is keq.
      (C15_probe_precedes_iff_pre holds for any c: with keq in place of equality nothing about cmp
      is needed, and its proof does not use the hypothesis.) *)
Theorem C15_probe_precedes_iff_pre : forall c, comparer_pre_ok c -> forall e s' t k s,
  num e = pack s' t -> (t <= keyTypeSeek kp)%N ->
  icmp c e (probe kp k s) = Lt <-> (cmp c (uk e) k = Lt \/ (keq c (uk e) k /\ (s < s')%N)).
Proof. intros c ok. exact (pprobe_precedes_iff c kp kp_ok). Qed.
Print Assumptions C15_probe_precedes_iff_pre.

Theorem C15_probe_lands_on_newest_visible_pre : forall c, comparer_pre_ok c -> forall l1 e l2 k s,
  psorted c (l1 ++ e :: l2) ->
  (forall x, In x (l1 ++ e :: l2) -> ptrailer_ok kp x) ->
  (forall x, In x l1 -> icmp c x (probe kp k s) = Lt) ->
  icmp c e (probe kp k s) <> Lt ->
  (forall x, In x l1 -> ~ (keq c (uk x) k /\ (pseq_of x <= s)%N)) /\
  (keq c (uk e) k -> (pseq_of e <= s)%N /\
     forall x, In x (l1 ++ e :: l2) -> keq c (uk x) k -> (pseq_of x <= s)%N -> (pseq_of x <= pseq_of e)%N) /\
  (~ keq c (uk e) k -> forall x, In x (l1 ++ e :: l2) -> ~ (keq c (uk x) k /\ (pseq_of x <= s)%N)).
Proof. intros c ok. exact (pprobe_lands_on_newest_visible c ok kp kp_ok). Qed.
Print Assumptions C15_probe_lands_on_newest_visible_pre.

(* Non-vacuity of 7 on the non-injective comparer cicmp: run [KEY@7 | key@4; Key@2], probe ("Key", 5). *)
Example C15_probe_run_pre_nonvacuous :
  let l1 := [ {| uk := [75;69;89]%N; num := pack 7 1 |} ] in
  let e := {| uk := [107;101;121]%N; num := pack 4 1 |} in
  let l2 := [ {| uk := [75;101;121]%N; num := pack 2 0 |} ] in
  let k := [75;101;121]%N in
  comparer_pre_ok cicmp /\ psorted cicmp (l1 ++ e :: l2) /\
  (forall x, In x l1 -> icmp cicmp x (probe kp k 5) = Lt) /\
  icmp cicmp e (probe kp k 5) <> Lt /\ keq cicmp (uk e) k /\ uk e <> k.
Proof.
  cbv zeta. split; [exact cicmp_pre_ok|]. split; [vm_compute; tauto|].
  split; [intros x Hx; cbn in Hx; destruct Hx as [<-|[]]; vm_compute; reflexivity|].
  split; [vm_compute; discriminate|]. split; [vm_compute; reflexivity|discriminate].
Qed.

(* 8. The shortened-index-key laws of 4 under the preorder contract (non-injective comparers).
      (C15_isucc_law_pre, like C15_isucc_law, does not use its hypothesis on c.) *)
Theorem C15_isep_law_pre : forall c, comparer_pre_ok c -> forall p a b x,
  isep c p a b = Some x -> icmp c a x = Lt /\ icmp c x b = Lt.
Proof. intros c ok p. exact (pisep_law c ok p). Qed.
Print Assumptions C15_isep_law_pre.

Theorem C15_isucc_law_pre : forall c, comparer_pre_ok c -> forall p b x,
  isucc c p b = Some x -> icmp c b x = Lt.
Proof. intros c _ p. exact (pisucc_law c p). Qed.
Print Assumptions C15_isucc_law_pre.
