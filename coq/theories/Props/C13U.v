(* Props/C13U.v — the glue packages under the table writer / reader (property C13): leveldb/util/buffer.go
   (util.Buffer), buffer_pool.go (util.BufferPool), range.go (BytesPrefix), util.go (BasicReleaser).
   Models: Base/UBuffer.v.  Each theorem is closed by a lemma of Base/UBuffer*Proofs.v and followed by
   Print Assumptions; the Examples (sample runs, the panics, witnesses that U5, U7 and P5 cannot be
   strengthened) are evaluated.  Items: U = util.Buffer, B = BytesPrefix, P = BufferPool, R = BasicReleaser.

   util.Buffer is modelled with its backing array and b.off as the code has them, because the slices it
   returns are views of that array.  [mx] is the largest length make([]byte, n) accepts (runtime maxAlloc); every
   theorem holds for every mx.

   CALL SITES of util.Buffer in goleveldb (read one by one; the rule each obeys is proved below):
     table/writer.go blockWriter.append     Write x3 (scratch, key tail, value)          queue: appends           [U1]
     table/writer.go blockWriter.finish     Alloc(4), PutUint32 into it at once            fill-at-once            [U6]
     table/writer.go blockWriter.reset      Reset                                          queue                    [U1]
     table/writer.go blockWriter.bytesLen   Len                                            queue                    [U1]
     table/writer.go filterWriter.finish    Len, Alloc(4) + PutUint32 at once, WriteByte   fill-at-once; append-only [U6][U7]
     table/writer.go filterWriter.generate  Len, generator.Generate(&w.buf)                append-only              [U7]
     filter/bloom.go Generate               dest := b.Alloc(nBytes+1); dest[nBytes] = k; dest[i] |= bit
                                            -- ORs into the slice: needs ZERO bytes.  filterWriter.buf is only ever
                                            appended to (never read, truncated or reset), so [U7] applies
     table/writer.go Writer.writeBlock      snappy: Encode(scratch, buf.Bytes()) reads the view before any other call [U3];
                                            else tmp := buf.Alloc(5); tmp[0] = type; b := buf.Bytes(); store the CRC into
                                            b[n:]; writer.Write(b): stores through views with no growing call in between
                                            [U5][U6]; all 5 allocated bytes are overwritten (the data block's buffer is
                                            reset and reused, its Alloc'ed cells are dirty: [U7] does not apply, not needed)
     table/writer.go Writer.Close           dataBlock.buf.Reset(); bpool.Put(dataBlock.buf.Bytes()): after Reset the
                                            view is the array from cell 0 (off = 0), capacity = whole array [U1]; ONE Put:
                                            the repair 239f7b9 keeps a failed writer from being closed twice [P5][P6]
     table/writer.go NewWriter              util.NewBuffer(pool.Get(size)[:0]): dirty cells above len, see writeBlock
     db.go recoverJournal / recoverJournalRO  buf.Reset(); buf.ReadFrom(journal record); decodeBatchToMem(buf.Bytes(), ...):
                                            the view is consumed (memdb.Put copies) before the next Reset / ReadFrom [U3];
                                            the reader's io.EOF is ReadFrom's success [U8]
     journal/journal.go, batch.go           do NOT use util.Buffer (journal.Writer has its own [blockSize]byte array,
                                            Batch its own data slice with its own grow): nothing to check there.
   BufferPool: table/reader.go readRawBlock / readBlock (Get(n) ... Put on every error path and after decompression),
   block.Release / filterBlock.Release (Put(b.data) once: Release latches through BasicReleaser [R1]). *)
From GL Require Import Base.Bytes Base.NIdx Base.UBuffer Base.UBufferProofs Base.UBufferAliasProofs Base.UBufferMiscProofs.
From Coq Require Import ZArith.
Open Scope N_scope.

(* U1  buffer_refines_queue.  For every sequence of calls (every call of the API except a caller's own store through
   a held slice) from every well-formed state, the observable contents are those of a plain byte queue: writes
   append, reads consume from the front, Truncate keeps a prefix, Reset empties, Len is the length, Bytes / String
   are the queue; a call panics only as q_spec says (Truncate out of range, negative Alloc / Grow, negative Next,
   a lying writer / reader, bytes.ErrTooLarge) and nothing runs after a panic. *)
Theorem C13U_buffer_refines_queue : forall mx ops s s' rs,
  u_wf s -> Forall queue_op ops -> u_run mx s ops = (s', rs) ->
  u_wf s' /\ q_chain (u_contents s) ops rs (u_contents s').
Proof. exact run_refines. Qed.
Print Assumptions C13U_buffer_refines_queue.

(* U2  bytes.ErrTooLarge is raised only by a request that would take the array beyond maxInt or beyond what make
   accepts: 2*cap + n > maxInt or > mx. *)
Theorem C13U_toolarge_only_when_large : forall mx s o s',
  u_wf s -> u_step mx s o = (s', RPanic PTooLarge) ->
  match o with
  | OReadFrom _ _ => True
  | _ => maxInt < 2 * u_cap s + op_need o \/ mx < 2 * u_cap s + op_need o
  end.
Proof. exact toolarge_needs. Qed.
Print Assumptions C13U_toolarge_only_when_large.

(* U3  buffer_views_valid_until_write (stated in three parts, U3-U5), part 1: no call other than the growing calls (Alloc, Grow, Write, WriteByte,
   ReadFrom) stores into any array, so EVERY slice ever returned reads the same bytes after any sequence of Bytes,
   String, Len, Read, Next, ReadByte, ReadBytes, WriteTo, Truncate and Reset. *)
Theorem C13U_views_unchanged_by_reads : forall mx ops s s' rs,
  Forall (fun o => write_op o = false) ops -> u_run mx s ops = (s', rs) ->
  forall v, view_read s' v = view_read s v.
Proof. exact views_unchanged_by_reads. Qed.
Print Assumptions C13U_views_unchanged_by_reads.

(* U4  part 2: an array the buffer has abandoned (it reallocated) is never stored to again by any call of the
   buffer: a slice of it keeps its bytes for ever (it no longer aliases the contents). *)
Theorem C13U_abandoned_arrays_frozen : forall mx s o s' r a,
  (match o with OVWrite _ _ _ => False | _ => True end) ->
  u_step mx s o = (s', r) -> (a < u_aid s)%nat -> u_array s' a = u_array s a.
Proof. exact old_array_frozen. Qed.
Print Assumptions C13U_abandoned_arrays_frozen.

(* U5  part 3, the current array: Alloc / Write / WriteByte that fit the capacity (n <= cap - len, the
   tryGrowByReslice path) store only at or above len(b.buf): a slice lying below len(b.buf) keeps its bytes, and no
   array is abandoned.  This is exactly the guarantee the code gives; growing calls that do not fit may slide the
   contents down over the array's start or reallocate (witnesses below). *)
Theorem C13U_view_survives_fitting_write : forall mx s o s' r a lo n,
  u_wf s ->
  (match o with OAlloc k => (0 <= k)%Z | OWrite _ | OWriteByte _ => True | _ => False end) ->
  op_need o <= u_cap s - u_len s ->
  u_step mx s o = (s', r) ->
  (a < u_aid s)%nat \/ (a = u_aid s /\ lo + n <= u_len s) ->
  view_read s' (a, lo, n) = view_read s (a, lo, n).
Proof. exact view_below_len_survives_reslice. Qed.
Print Assumptions C13U_view_survives_fitting_write.

(* U6  what a returned slice is: it reads back the bytes the call reported; the slice of Bytes is the contents;
   storing n bytes through the slice of Alloc(n) before any other call on the buffer makes them the last n bytes
   of the contents (Alloc + fill = Write). *)
Theorem C13U_returned_view_reads_back : forall mx s o s' v d,
  u_step mx s o = (s', RView v d) -> view_read s' v = d.
Proof. exact returned_view_reads_back. Qed.
Print Assumptions C13U_returned_view_reads_back.

Theorem C13U_bytes_view_is_contents : forall mx s s' v d,
  u_step mx s OBytes = (s', RView v d) -> s' = s /\ d = u_contents s /\ view_read s v = u_contents s.
Proof. exact bytes_view_is_contents. Qed.
Print Assumptions C13U_bytes_view_is_contents.

Theorem C13U_alloc_then_fill_is_write : forall mx s n s1 v d x s2 r2,
  u_wf s -> u_step mx s (OAlloc n) = (s1, RView v d) -> lenN x = Z.to_N n ->
  u_step mx s1 (OVWrite v 0 x) = (s2, r2) ->
  u_wf s2 /\ u_contents s2 = u_contents s ++ x /\ r2 = RNum (lenN x).
Proof. exact alloc_then_fill. Qed.
Print Assumptions C13U_alloc_then_fill_is_write.

(* U7  on a buffer that was only ever appended to (Write, WriteByte, Alloc, Grow; Bytes / String / Len in between)
   starting from the zero value, every slice Alloc returns is all zero — what filter/bloom.go relies on. *)
Theorem C13U_alloc_zero_on_append_only : forall mx ops s s' rs,
  app_inv s -> Forall (fun o => append_op o = true) ops -> u_run mx s ops = (s', rs) ->
  app_inv s' /\ forall n v d, In (OAlloc n, RView v d) (combine ops rs) -> all_zero d.
Proof. exact append_run_alloc_zero. Qed.
Print Assumptions C13U_alloc_zero_on_append_only.

Theorem C13U_zero_value_is_append_only : app_inv u_zero.
Proof. exact app_inv_zero. Qed.
Print Assumptions C13U_zero_value_is_append_only.

(* U8  readfrom_total.  For every reader script: the state stays well formed; with a reader that ends (io.EOF once
   the script is used up) the call returns; the call NEVER reports io.EOF (the reader's io.EOF is the success path);
   with a lawful reader (no negative count, no answer above MinRead, which always fits) the result is
   bytes.ErrTooLarge, or all data up to the first io.EOF / error was appended and n is its length — a read of
   nothing with a nil error is not the end; a reader answering (0, nil) for ever makes the call spin (RDiverge). *)
Theorem C13U_readfrom_total : forall mx s sc tl s' r,
  u_wf s -> u_step mx s (OReadFrom sc tl) = (s', r) ->
  u_wf s'
  /\ (tl = TEof -> r <> RDiverge)
  /\ (forall n d, r <> RNErr n UEOF d)
  /\ (Forall rd_small sc -> Forall rd_nonneg sc ->
      (r = RPanic PTooLarge /\ exists k, u_contents s' = u_contents s ++ concat (map rd_data (firstn k sc)))
      \/ (u_contents s' = u_contents s ++ fst (rf_abs sc tl [])
          /\ (r = RDiverge \/ exists e, e <> UEOF /\ r = RNErr (lenN (fst (rf_abs sc tl []))) e []))).
Proof. exact readfrom_total. Qed.
Print Assumptions C13U_readfrom_total.

Theorem C13U_readfrom_zero_read_is_not_eof : forall tl sc acc,
  rf_abs (Rd [] UNil :: sc) tl acc = rf_abs sc tl acc.
Proof. exact rf_abs_zero_read. Qed.
Print Assumptions C13U_readfrom_zero_read_is_not_eof.

(* Non-vacuity and witnesses are run at mx = 2^48 (linux/amd64). *)
Definition mx48 : N := 281474976710656.

(* a run: write, read, a read of nothing, data behind it, EOF *)
Example C13U_ex_queue :
  let '(s, rs) := u_run mx48 u_zero
     [OWrite [1;2;3]; ORead 2; OReadFrom [Rd [7] UNil; Rd [] UNil; Rd [8;9] UEOF] TEof; OLen; OString] in
  rs = [RNErr 3 UNil []; RNErr 2 UNil [1;2]; RNErr 3 UNil []; RNum 4; RData [3;7;8;9]] /\ u_wfb s = true.
Proof. vm_compute. split; reflexivity. Qed.

(* misbehaving readers: a negative count is the code's own panic, a count above len(p) a run-time slice error *)
Example C13U_ex_reader_negative :
  snd (u_step mx48 u_zero (OReadFrom [RdNeg] TEof)) = RPanic PNegRead.
Proof. vm_compute. reflexivity. Qed.
Example C13U_ex_reader_overclaims :
  snd (u_step mx48 (u_new (zeros 600) 0) (OReadFrom [Rd (zeros 601) UNil] TEof)) = RPanic PBounds.
Proof. vm_compute. reflexivity. Qed.
Example C13U_ex_reader_zero_forever :
  snd (u_step mx48 u_zero (OReadFrom [Rd [1] UNil] TZeros)) = RDiverge.
Proof. vm_compute. reflexivity. Qed.

(* the documented panics and the undocumented one (Next with a negative count) *)
Example C13U_ex_panics :
  snd (u_step mx48 (u_new [1;2;3] 3) (OTruncate 4)) = RPanic PTruncate
  /\ snd (u_step mx48 u_zero (OAlloc (-1))) = RPanic PAllocNeg
  /\ snd (u_step mx48 u_zero (OGrow (-1))) = RPanic PGrowNeg
  /\ snd (u_step mx48 (u_new [1;2;3] 3) (ONext (-1))) = RPanic PBounds
  /\ snd (u_step mx48 (u_new [1;2;3] 3) (OGrow 9223372036854775800)) = RPanic PTooLarge
  /\ snd (u_step mx48 (u_new [1;2;3] 3) (OGrow 1125899906842624)) = RPanic PTooLarge.
Proof. vm_compute. repeat split; reflexivity. Qed.

(* U5 is tight: a Write that does not fit slides the contents down over a slice Next returned earlier (the slide
   itself never touches the cells of the CURRENT contents: it needs off > cap/2 and stores below cap/2) ... *)
Example C13U_view_clobbered_by_slide_witness :
  let s0 := u_new [1;2;3;4;5;6;7;8] 8 in
  let '(s1, r1) := u_step mx48 s0 (ONext 6) in
  let '(s2, _) := u_step mx48 s1 (OWrite [9]) in
  r1 = RView (0%nat, 0, 6) [1;2;3;4;5;6] /\ view_read s2 (0%nat, 0, 6) = [7;8;9;4;5;6] /\ u_contents s2 = [7;8;9].
Proof. vm_compute. repeat split; reflexivity. Qed.

(* ... and after Reset the next Write reuses the cells of a slice taken before it *)
Example C13U_view_clobbered_after_reset_witness :
  let s0 := u_new [1;2;3;4] 4 in
  let '(s1, _) := u_step mx48 s0 OReset in
  let '(s2, _) := u_step mx48 s1 (OWrite [9;9]) in
  view_read s0 (0%nat, 0, 4) = [1;2;3;4] /\ view_read s2 (0%nat, 0, 4) = [9;9;3;4].
Proof. vm_compute. repeat split; reflexivity. Qed.

(* a store through the slice of Alloc after a reallocating call is lost: it lands in the abandoned array *)
Example C13U_stale_alloc_view_witness :
  let s0 := u_new [0;0;0;0] 0 in
  let '(s1, _) := u_step mx48 s0 (OAlloc 2) in
  let '(s2, _) := u_step mx48 s1 (OWrite [5;5;5;5;5]) in
  let '(s3, _) := u_step mx48 s2 (OVWrite (0%nat, 0, 2) 0 [7;7]) in
  u_aid s2 = 1%nat /\ u_contents s3 = [0;0;5;5;5;5;5].
Proof. vm_compute. repeat split; reflexivity. Qed.

(* U7 needs "append-only": after a Reset, Alloc hands out the old bytes *)
Example C13U_alloc_dirty_after_reset_witness :
  let '(s1, _) := u_step mx48 u_zero (OWrite [1;2;3]) in
  let '(s2, _) := u_step mx48 s1 OReset in
  snd (u_step mx48 s2 (OAlloc 2)) = RView (0%nat, 0, 2) [1;2].
Proof. vm_compute. reflexivity. Qed.

(* B1  bytes_prefix_correct: BytesPrefix(p) = [p, limit) holds exactly the byte strings with prefix p (membership
   as the iterators test it: Start <= k under bytes.Compare, and k < Limit unless Limit is nil). *)
Theorem C13U_bytes_prefix_correct : forall p k, wf_bytes p -> wf_bytes k ->
  fst (bytes_prefix p) = p /\ in_range (bytes_prefix p) k = is_prefix_of p k.
Proof. exact bytes_prefix_correct. Qed.
Print Assumptions C13U_bytes_prefix_correct.

(* B2  the limit is open (nil) exactly for the prefixes made of 0xff bytes only, the empty one included *)
Theorem C13U_bytes_prefix_open_limit : forall p, wf_bytes p ->
  (snd (bytes_prefix p) = None <-> Forall (fun c => c = 255) p).
Proof. exact bytes_prefix_open_limit. Qed.
Print Assumptions C13U_bytes_prefix_open_limit.

Example C13U_ex_prefix :
  bytes_prefix [102;111;111;45] = ([102;111;111;45], Some [102;111;111;46])
  /\ bytes_prefix [1;255;255] = ([1;255;255], Some [2])
  /\ bytes_prefix [255;255] = ([255;255], None) /\ bytes_prefix [] = ([], None).
Proof. vm_compute. repeat split; reflexivity. Qed.

(* P1  poolNum is monotone in the size *)
Theorem C13U_pool_num_monotone : forall bl n n', n <= n' -> (pool_num bl n <= pool_num bl n')%nat.
Proof. exact pool_num_mono. Qed.
Print Assumptions C13U_pool_num_monotone.

(* P2  the class of n stays within the classes (at most length bl: the code has five baselines, six classes); n fits
   its class's baseline and exceeds every smaller class's *)
Theorem C13U_pool_num_bound : forall bl n,
  let c := pool_num bl n in
  (c <= length bl)%nat /\ ((c < length bl)%nat -> n <= nth c bl 0) /\ forall i, (i < c)%nat -> nth i bl 0 < n.
Proof. exact pool_num_bound. Qed.
Print Assumptions C13U_pool_num_bound.

(* P3  Get(n) returns length n and capacity >= n, whatever sync.Pool hands back *)
Theorem C13U_pool_get_len_cap : forall p n pick fresh,
  let g := snd (bp_get p n pick fresh) in pg_len g = n /\ n <= pg_cap g.
Proof. exact bp_get_len_cap. Qed.
Print Assumptions C13U_pool_get_len_cap.

(* P4  every pooled slice sits in the class of its capacity (new pool, Put, Get keep it), and a slice Get reuses
   has a capacity of the request's own class *)
Theorem C13U_pool_classes_kept : forall b,
  pool_ok (bp_new b)
  /\ (forall p x, pool_ok p -> pool_ok (bp_put p x))
  /\ (forall p n pick fresh, pool_ok p -> pool_ok (fst (bp_get p n pick fresh))).
Proof. intros b. exact (conj (pool_ok_new b) (conj pool_ok_put pool_ok_get)). Qed.
Print Assumptions C13U_pool_classes_kept.

Theorem C13U_pool_reuse_same_class : forall p n i fresh,
  pool_ok p -> pg_reused (snd (bp_get p n (Some i) fresh)) = true ->
  pool_num (bp_base p) (pg_cap (snd (bp_get p n (Some i) fresh))) = pool_num (bp_base p) n.
Proof. exact bp_get_reused_class. Qed.
Print Assumptions C13U_pool_reuse_same_class.

(* P5  a slice that is in the pool at most once is handed out at most once: two Gets without a Put in between
   never return the same array *)
Theorem C13U_pool_single_put_single_owner : forall p n i fresh n' i' fresh',
  let r := bp_get p n (Some i) fresh in
  let r' := bp_get (fst r) n' (Some i') fresh' in
  (bp_count p (pg_id (snd r)) <= 1)%nat ->
  pg_reused (snd r) = true -> pg_reused (snd r') = true -> pg_id (snd r') <> pg_id (snd r).
Proof. exact bp_get_no_second_owner. Qed.
Print Assumptions C13U_pool_single_put_single_owner.

(* P6  pool_double_put_refuted: nothing in Put detects a second Put of the same slice; two Gets then return the
   same array to two owners (the hazard defect 239f7b9 hit through table.Writer.Close running twice). *)
Example C13U_pool_double_put_refuted :
  let p0 := bp_new 4096 in
  let p2 := bp_put (bp_put p0 (7%nat, 4096)) (7%nat, 4096) in
  let '(p3, g1) := bp_get p2 4000 (Some 0%nat) 100%nat in
  let '(_, g2) := bp_get p3 3000 (Some 0%nat) 101%nat in
  bp_count p2 7%nat = 2%nat /\ pg_id g1 = 7%nat /\ pg_id g2 = 7%nat /\ pg_reused g1 = true /\ pg_reused g2 = true.
Proof. vm_compute. repeat split; reflexivity. Qed.

Example C13U_ex_pool_classes :
  map (pool_num (bp_base (bp_new 4096))) [0; 1024; 1025; 2048; 2049; 4096; 4097; 8192; 8193; 16384; 16385]
  = [0; 0; 1; 1; 2; 2; 3; 3; 4; 4; 5]%nat.
Proof. vm_compute. reflexivity. Qed.

(* R1  Release latches: the attached releaser can be called by the first Release only *)
Theorem C13U_release_latches : forall r,
  let '(r1, res1) := rl_step r RLRelease in
  rl_released r1 = true /\ rl_step r1 RLRelease = (r1, RLUnit false).
Proof. exact rl_release_latches. Qed.
Print Assumptions C13U_release_latches.

Theorem C13U_set_releaser_after_release_panics : forall r nn,
  rl_released r = true -> rl_step r (RLSet nn) = (r, RLPanicReleased).
Proof. exact rl_set_after_release_panics. Qed.
Print Assumptions C13U_set_releaser_after_release_panics.
