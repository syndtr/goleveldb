(* Props/C13.v — property C13: sorted tables round-trip under all layouts and detect block damage.
   Each theorem is closed by a lemma of Base/ or Codec/ and followed by Print Assumptions, except the
   two computed ones (C13_range_iter_empty_table_reports_corruption, proved by evaluation, and
   C13_table_reads_degrade_to_corruption, three lemmas paired).  The file also defines the example
   tables, readers and codec its non-vacuity Examples run on.

   Stage A (block level): Codec/Block.v models blockWriter and block / blockIter of
   leveldb/table; the theorems hold for every restart interval >= 1, every list of pairs whose
   encoded block is shorter than 2^32 bytes (offsets are uint32 in the format), every comparer
   satisfying the contract. *)
From GL Require Import Base.Order Base.Varint Base.VarintProofs Base.Cursor Base.CursorProofs
  Codec.BytesCmp Codec.BytesCmpProofs Codec.Block Codec.BlockEnc Codec.BlockProofs Codec.BlockSliceProofs
  Codec.Table Codec.TableProofs Codec.TableIterProofs Codec.IndexedIterProofs Codec.TableSliceProofs Codec.TableDamageProofs Codec.TableDamageIterProofs Codec.TableDamageStrictProofs
  Codec.TableCheck Codec.TableCheckProofs Codec.TableWriteProofs Codec.TableEmptyProofs Codec.TableSizes Codec.TableWriteSnappyProofs
  Codec.TablePolicyProofs Codec.Snappy Codec.TblCrc Gen.Consts Gen.ConstsOkTbl.

(* A.0  uvarint: Uvarint (PutUvarint x ++ rest) = (x, len) for every uint64 x. *)
Theorem C13_uvarint_roundtrip : forall x rest, (x < 2 ^ 64)%N ->
  uvarint (put_uvarint x ++ rest) = UvOk x (lenN (put_uvarint x)).
Proof. exact uvarint_put. Qed.
Print Assumptions C13_uvarint_roundtrip.

(* A.1  block_roundtrip: decoding what blockWriter produced returns the pairs — for ANY list of
   pairs (prefix compression does not need order) and every restart interval >= 1. *)
Theorem C13_block_roundtrip : forall ri kvs,
  (1 <= ri)%N -> (lenN (block_build ri kvs) < 2 ^ 32)%N ->
  block_decode (block_build ri kvs) = Ok kvs.
Proof. exact block_roundtrip. Qed.
Print Assumptions C13_block_roundtrip.

(* A.2  block_seek_first_ge: on strictly increasing keys, Seek k lands on the first entry whose
   key is >= k (restart-point binary search, then linear scan), or reports false when there is none. *)
Theorem C13_block_seek_first_ge : forall c ri kvs k,
  comparer_ok c -> (1 <= ri)%N -> (lenN (block_build ri kvs) < 2 ^ 32)%N -> sorted c kvs ->
  exists b, read_block (block_build ri kvs) = Ok b /\
    let '(ok, it) := bi_seek c (new_block_iter c b None false) k in
    match first_ge c k kvs 0 with
    | Some i => ok = true /\ nth_error kvs i = Some (bi_key it, bi_value it)
    | None => ok = false
    end.
Proof. exact block_seek_first_ge. Qed.
Print Assumptions C13_block_seek_first_ge.

(* A.3  block_iter_refines_cursor: any sequence of First/Last/Seek/Next/Prev on the (unsliced)
   block iterator observes exactly what the same calls observe on the reference cursor over the
   list (Base/Cursor.v), including stepping off either end and coming back.  (Model note: Prev
   re-scans the restart range instead of popping blockIter's prevNode/prevKeys cache.) *)
Theorem C13_block_iter_refines_cursor : forall c ri kvs,
  comparer_ok c -> (1 <= ri)%N -> (lenN (block_build ri kvs) < 2 ^ 32)%N -> sorted c kvs ->
  exists b, read_block (block_build ri kvs) = Ok b /\
    forall ops, bi_run c (new_block_iter c b None false) ops = c_run c kvs CSOI ops.
Proof. exact block_iter_refines_cursor. Qed.
Print Assumptions C13_block_iter_refines_cursor.

(* Stage B (table level over an abstract block store).  [table_wf c rd blocks seps hs] (TableProofs.v):
   the reader's index block is a well-laid-out block (good_block: some restart layout, not necessarily
   the one blockWriter picks) holding the entries (sep j, handle j), every handle fetches such a block
   holding the pairs [blocks j], the pairs are strictly increasing, and
   the separators satisfy   last key of block j <= sep j < first key of block j+1.
   [tkvs blocks] is the list of all pairs.  The theorems hold for every comparer satisfying the
   contract and every reader satisfying table_wf — in particular (C.2) for every file, written by
   whatever writer, that the executable check [table_check] accepts. *)

(* B.1  table_find_first_ge: Find(key) (index seek, data-block seek, fall through to the next block)
   returns the first pair whose key is >= key, NotFound when there is none. *)
Theorem C13_table_find_first_ge : forall c rd blocks seps hs key,
  comparer_ok c -> table_wf c rd blocks seps hs ->
  tfind c rd key false =
  match first_ge c key (tkvs blocks) 0 with
  | Some i => match nth_error (tkvs blocks) i with Some (k, v) => FFound k v | None => FOther end
  | None => FNotFound
  end.
Proof. intros c rd blocks seps hs key Hc Hw. exact (tfind_first_ge c Hc rd blocks seps hs Hw key). Qed.
Print Assumptions C13_table_find_first_ge.

(* B.2  table_get: Get returns the stored value of a stored key and NotFound for any other key. *)
Theorem C13_table_get_present : forall c rd blocks seps hs k v,
  comparer_ok c -> table_wf c rd blocks seps hs -> In (k, v) (tkvs blocks) -> tget c rd k = FFound k v.
Proof. intros c rd blocks seps hs k v Hc Hw. exact (tget_present c Hc rd blocks seps hs Hw k v). Qed.
Print Assumptions C13_table_get_present.

Theorem C13_table_get_absent : forall c rd blocks seps hs k,
  comparer_ok c -> table_wf c rd blocks seps hs -> (forall v, ~ In (k, v) (tkvs blocks)) -> tget c rd k = FNotFound.
Proof. intros c rd blocks seps hs k Hc Hw. exact (tget_absent c Hc rd blocks seps hs Hw k). Qed.
Print Assumptions C13_table_get_absent.

(* B.3  index_routes: by the separator law, the block the index seek selects for a key is the only
   block that can hold that key. *)
Theorem C13_index_routes : forall c rd blocks seps hs key j j' x,
  comparer_ok c -> table_wf c rd blocks seps hs ->
  c_seek c (ientries seps hs) key = CAt j ->
  (j' < length blocks)%nat -> In x (nth j' blocks []) -> fst x = key -> j' = j.
Proof.
  intros c rd blocks seps hs key j j' x Hc Hw Hs.
  exact (routes_only c Hc rd blocks seps hs Hw key j j' x (index_seek_at c rd blocks seps hs Hw key j Hs)).
Qed.
Print Assumptions C13_index_routes.

(* B.4  table_iter_refines_cursor: every sequence of First/Last/Seek/Next/Prev on the table
   iterator (indexedIterator over indexIter and the data-block iterators; both settings of the
   strict flag) observes what the reference cursor observes.
   (a) NewIterator(nil, ro): the cursor over all pairs — every well-formed table, the empty one included. *)
Theorem C13_table_iter_refines_cursor : forall c rd blocks seps hs strict,
  comparer_ok c -> table_wf c rd blocks seps hs ->
  exists t, new_titer c rd None strict = inr t /\
    forall ops, fst (ti_run c rd t ops) = c_run c (tkvs blocks) CSOI ops.
Proof. intros c rd blocks seps hs strict. exact (table_iter_refines c rd blocks seps hs strict). Qed.
Print Assumptions C13_table_iter_refines_cursor.

(* (b) NewIterator(&util.Range{start, limit}, ro), each bound optional: the cursor over the pairs
   with start <= key < limit (the index iterator is sliced with inclLimit, the data iterators of
   the first and last index position are sliced, indexIter.Get's isFirst/isLast rule) - for EVERY
   well-formed table, the EMPTY one included.  (On the empty table the observations are those of
   the cursor over the empty list - nothing, ever - although the iterator can REPORT a corruption
   error on the way: B.4c.) *)
Theorem C13_table_iter_range_refines_cursor : forall c rd blocks seps hs start limit strict,
  comparer_ok c -> table_wf c rd blocks seps hs ->
  exists t, new_titer c rd (Some (start, limit)) strict = inr t /\
    forall ops, fst (ti_run c rd t ops) = c_run c (restrict c start limit (tkvs blocks)) CSOI ops.
Proof. exact table_iter_range_refines. Qed.
Print Assumptions C13_table_iter_range_refines_cursor.

(*     the same for non-empty tables only (a special case of the statement above) *)
Theorem C13_table_iter_range_refines_cursor_partial : forall c rd blocks seps hs start limit strict,
  comparer_ok c -> table_wf c rd blocks seps hs -> tkvs blocks <> [] ->
  exists t, new_titer c rd (Some (start, limit)) strict = inr t /\
    forall ops, fst (ti_run c rd t ops) = c_run c (restrict c start limit (tkvs blocks)) CSOI ops.
Proof. exact table_iter_sliced_refines. Qed.
Print Assumptions C13_table_iter_range_refines_cursor_partial.

(* (c) FINDING, stated precisely.  The table the writer produces for NO pairs (one data block
   without entries, one index entry with the empty separator) is well-formed; NewIterator(nil)
   walks it silently; but NewIterator(&util.Range{Start: []byte{}}) - an empty, non-nil start
   key, e.g. util.BytesPrefix([]byte{}) - followed by Seek([]byte{}) makes the data iterator call
   block.seek with an EMPTY restart range (riStart = riLimit = restartsLen): sort.Search(0) = 0,
   index = rstart = restartsLen, and the "restart offset" read at that index is the restart-COUNT
   word (1), so block.entry(1) reports "entries offset not aligned": Error() is a corruption
   error on an undamaged table.  The same at block level for any Start on an empty block.
   No pair is returned (B.4b), so the observations still refine the cursor; under the strict
   flag the error is recorded in the table iterator, otherwise it is swallowed. *)
Definition ex_empty_reader : treader :=
  match twrite tblp tbl_crc (fun x => x) bytewise 4096 16 false None [] with
  | Some f => open_table tblp tbl_crc (fun _ => None) (fun _ _ _ => true) bytewise f None true
  | None => tr_broken Corrupt
  end.
Definition run_err (sl : option krange) (strict : bool) (ops : list cop) :=
  match new_titer bytewise ex_empty_reader sl strict with
  | inr t => let '(l, tf) := ti_run bytewise ex_empty_reader t ops in (l, ti_error tf)
  | inl e => ([], Some e)
  end.
Theorem C13_range_iter_empty_table_reports_corruption :
  table_wf bytewise ex_empty_reader [[]] [[]] [mkBH 0 8] /\
  run_err None true [OpFirst; OpSeek []; OpLast; OpPrev; OpNext] = ([None; None; None; None; None], None) /\
  run_err (Some (Some [], None)) true [OpSeek []] = ([None], Some ErrCorrupt) /\
  run_err (Some (Some [], None)) false [OpSeek []] = ([None], None) /\
  (match read_block (block_build 16 []) with
   | Ok b => bi_err (snd (bi_seek bytewise (new_block_iter bytewise b (Some (Some [97]%N, None)) false) [97]%N))
   | _ => None
   end) = Some ErrCorrupt.
Proof.
  split; [apply (table_wfb_sound bytewise ex_empty_reader 16); vm_compute; reflexivity|].
  vm_compute. repeat split; reflexivity.
Qed.
Print Assumptions C13_range_iter_empty_table_reports_corruption.

(* B.5  offsetof_monotone: approximate offsets never decrease as the key grows. *)
Theorem C13_offsetof_monotone : forall c rd blocks seps hs k1 k2,
  comparer_ok c -> table_wf c rd blocks seps hs -> cmp c k1 k2 <> Gt ->
  exists o1 o2, toffset_of c rd k1 = Ok o1 /\ toffset_of c rd k2 = Ok o2 /\ (o1 <= o2)%N.
Proof. intros c rd blocks seps hs k1 k2 Hc Hw. exact (toffset_mono c Hc rd blocks seps hs Hw k1 k2). Qed.
Print Assumptions C13_offsetof_monotone.

(* B.6  filter_independent: with any filter that has no false negative on the keys of each data
   block (filter_sound), the exact-match lookup through the filter (what the DB does with
   Find(key, filtered = true)) equals Get without consulting a filter. *)
Theorem C13_filter_independent : forall c rd blocks seps hs key,
  comparer_ok c -> table_wf c rd blocks seps hs -> filter_sound rd blocks hs ->
  tget_filtered c rd key = tget c rd key.
Proof. intros c rd blocks seps hs key Hc Hw. exact (tget_filter_independent c Hc rd blocks seps hs Hw key). Qed.
Print Assumptions C13_filter_independent.

(* B.7  policy_change_invisible: two readers of one well-formed table that differ only in the filter
   they consult (the writer's policy, another policy, the writer's policy found among the
   alternatives, none - the component tr_filter - and possibly in dataEnd) answer every exact-match
   lookup through the filter, every Get, every Find and every movement sequence of every iterator
   (full or range-restricted, strict or not) identically, provided neither filter has a false
   negative on the keys of a data block (C16: any policy meeting the policy contract; a reader
   without a usable filter trivially, C13_filter_absent_sound).  OffsetOf agrees too when both
   readers have the same dataEnd; it is the ONE observable that depends on the reader's policy:
   NewReader moves dataEnd from the metaindex block's offset to the filter block's offset only
   when it recognises the filter, so OffsetOf of a key beyond the last separator differs by the
   length of the filter block (C13_policy_visible_in_offsetof_beyond_end). *)
Theorem C13_policy_change_invisible : forall c rd rd' blocks seps hs,
  comparer_ok c -> table_wf c rd blocks seps hs ->
  tr_index rd' = tr_index rd -> (forall h, tr_fetch rd' h = tr_fetch rd h) ->
  filter_sound rd blocks hs -> filter_sound rd' blocks hs ->
  (forall key, tget_filtered c rd' key = tget_filtered c rd key) /\
  (forall key, tget c rd' key = tget c rd key) /\
  (forall key, tfind c rd' key false = tfind c rd key false) /\
  (forall sl strict, exists t t',
     new_titer c rd sl strict = inr t /\ new_titer c rd' sl strict = inr t' /\
     forall ops, fst (ti_run c rd' t' ops) = fst (ti_run c rd t ops)) /\
  (tr_dataEnd rd' = tr_dataEnd rd -> forall key, toffset_of c rd' key = toffset_of c rd key).
Proof. exact policy_change_invisible. Qed.
Print Assumptions C13_policy_change_invisible.

Theorem C13_filter_absent_sound : forall rd blocks hs, tr_filter rd = None -> filter_sound rd blocks hs.
Proof. exact filter_sound_none. Qed.
Print Assumptions C13_filter_absent_sound.

(*      ... and at the byte level NewReader on the same file under ANY reader policy (filter name or
   none, any contains function) yields readers with the same index block and the same block
   fetches - the hypotheses of B.7. *)
Theorem C13_open_table_policy_independent : forall tp crc decompress fc1 fc2 c file fn1 fn2 verify,
  tr_index (open_table tp crc decompress fc2 c file fn2 verify) = tr_index (open_table tp crc decompress fc1 c file fn1 verify) /\
  forall h, tr_fetch (open_table tp crc decompress fc2 c file fn2 verify) h = tr_fetch (open_table tp crc decompress fc1 c file fn1 verify) h.
Proof. exact open_table_policy_indep. Qed.
Print Assumptions C13_open_table_policy_independent.

(* Stage C (bytes).  The checksum and the compression codec are parameters. *)

(* C.1  table_damage_contained, conditional on [detects] (stored CRC <> CRC of the stored bytes):
   a verifying read of that block never returns a block ... *)
Theorem C13_table_damage_contained : forall tp crc decompress file h,
  detects tp crc file h ->
  match read_block_at tp crc decompress file h true with Ok _ => False | _ => True end.
Proof. exact read_block_detects. Qed.
Print Assumptions C13_table_damage_contained.

(* ... and a reader some of whose block reads fail that way answers Find / Get exactly as the
   intact reader or with Corrupted — never with invented or misattributed data; OffsetOf is
   unaffected. *)
Theorem C13_table_reads_degrade_to_corruption : forall c rd rd' key filtered,
  degraded rd rd' ->
  (tfind c rd' key filtered = tfind c rd key filtered \/ tfind c rd' key filtered = FCorrupted) /\
  (tget c rd' key = tget c rd key \/ tget c rd' key = FCorrupted) /\
  toffset_of c rd' key = toffset_of c rd key.
Proof.
  intros c rd rd' key filtered D. split; [exact (tfind_degraded c rd rd' D key filtered)|].
  split; [exact (tget_degraded c rd rd' D key) | exact (toffset_degraded c rd rd' D key)].
Qed.
Print Assumptions C13_table_reads_degrade_to_corruption.

(* ... and the NON-STRICT iterator over a table some of whose data blocks cannot be read skips
   exactly those blocks: every movement sequence observes what the reference cursor over the
   pairs of the readable blocks observes (remaining original pairs, in order). *)
Theorem C13_table_iter_skips_unreadable : forall c rd rd' blocks seps hs (bad : nat -> bool),
  comparer_ok c -> table_wf c rd blocks seps hs ->
  tr_index rd' = tr_index rd ->
  (forall j, (j < length blocks)%nat ->
     tr_fetch rd' (nth j hs bh0) = if bad j then Corrupt else tr_fetch rd (nth j hs bh0)) ->
  exists t, new_titer c rd' None false = inr t /\
    forall ops, fst (ti_run c rd' t ops)
                = c_run c (concat (map (fun j => if bad j then [] else nth j blocks []) (seq 0 (length blocks)))) CSOI ops.
Proof. exact table_iter_skips_unreadable. Qed.
Print Assumptions C13_table_iter_skips_unreadable.

(* ... and the STRICT iterator over a reader some of whose block fetches fail with Corrupt: every
   call either behaves exactly as on the intact reader or returns false with the error set, after
   which every call returns false — the observations of any movement sequence are a prefix of
   those on the intact reader (hence, by B.4, of the reference cursor's) followed by false only. *)
Theorem C13_table_strict_iter_degrades : forall c rd rd' ops t,
  degraded rd rd' -> ti_strict t = true ->
  exists n, firstn n (fst (ti_run c rd' t ops)) = firstn n (fst (ti_run c rd t ops)) /\
            skipn n (fst (ti_run c rd' t ops)) = map (fun _ => None) (skipn n ops).
Proof. intros c rd rd' ops t D. exact (strict_run_degraded c rd rd' D ops t). Qed.
Print Assumptions C13_table_strict_iter_degrades.

(* C.2  format membership: a reader accepted by the executable check [table_check] (every block
   re-encodes to its bytes with the given restart interval, separators and handles as required)
   is well-formed, with exactly the returned pairs.  The correspondence run evaluates table_check
   on the bytes of tables written by the Go writer. *)
Theorem C13_table_check_sound : forall c rd ri kvs, table_check c rd ri = Some kvs ->
  exists blocks seps hs, table_wf c rd blocks seps hs /\ tkvs blocks = kvs.
Proof. exact table_check_sound. Qed.
Print Assumptions C13_table_check_sound.

(* C.3  table_wf_of_write for Compression = NoCompression: any filter generator
   on the writer side and any filter name (or none) on the reader side, any block size, restart
   interval >= 1, any checksum function below 2^32, any comparer satisfying the contract for
   which the empty key is least (the Go writer tests len(key) == 0 to mean "no next key").  The file the
   model writer produces for strictly increasing pairs is, when opened by the model reader with
   or without checksum verification, a well-formed table holding exactly those pairs — so
   B.1-B.6 apply to it.
   The statement for both compression settings (snappy = true for every codec with decompress
   (compress x) = Some x and non-empty output) is C13_table_wf_of_write (C.3') below; it needs the
   computable size condition table_sizes_ok (the uncompressed blocks are then not bounded by the
   file length). *)
Theorem C13_table_wf_of_write_partial :
  forall tp crc compress decompress fcontains c blockSize ri fgen kvs file fname verify,
  tparams_ok tp -> (forall b, (crc b < 2 ^ 32)%N) -> (forall x, decompress (compress x) = Some x) ->
  comparer_ok c -> (forall k, cmp c [] k <> Gt) -> (1 <= ri)%N ->
  sorted c kvs ->
  twrite tp crc compress c blockSize ri false fgen kvs = Some file -> (lenN file < 2 ^ 32)%N ->
  exists blocks seps hs,
    table_wf c (open_table tp crc decompress fcontains c file fname verify) blocks seps hs /\
    tkvs blocks = kvs.
Proof.
  intros tp crc compress decompress fcontains c blockSize ri fgen kvs file fname verify Htp Hcrc Hcodec Hc Hel Hri.
  exact (table_wf_of_write tp Htp crc Hcrc compress decompress Hcodec fcontains c Hc Hel blockSize ri Hri fgen kvs file fname verify).
Qed.
Print Assumptions C13_table_wf_of_write_partial.

(* C.4  the round trip end to end (same scope as C.3): a table written from strictly increasing
   pairs and opened again yields exactly those pairs — exact lookups, first-key->= lookups,
   full and range-restricted iteration in both directions under arbitrary movement sequences,
   non-decreasing offsets. *)
Theorem C13_table_roundtrip_partial :
  forall tp crc compress decompress fcontains c blockSize ri fgen kvs file fname verify strict,
  tparams_ok tp -> (forall b, (crc b < 2 ^ 32)%N) -> (forall x, decompress (compress x) = Some x) ->
  comparer_ok c -> (forall k, cmp c [] k <> Gt) -> (1 <= ri)%N ->
  sorted c kvs ->
  twrite tp crc compress c blockSize ri false fgen kvs = Some file -> (lenN file < 2 ^ 32)%N ->
  let rd := open_table tp crc decompress fcontains c file fname verify in
  (forall k v, In (k, v) kvs -> tget c rd k = FFound k v) /\
  (forall k, (forall v, ~ In (k, v) kvs) -> tget c rd k = FNotFound) /\
  (forall key, tfind c rd key false =
     match first_ge c key kvs 0 with
     | Some i => match nth_error kvs i with Some (k, v) => FFound k v | None => FOther end
     | None => FNotFound
     end) /\
  (exists t, new_titer c rd None strict = inr t /\
     forall ops, fst (ti_run c rd t ops) = c_run c kvs CSOI ops) /\
  (forall k1 k2, cmp c k1 k2 <> Gt ->
     exists o1 o2, toffset_of c rd k1 = Ok o1 /\ toffset_of c rd k2 = Ok o2 /\ (o1 <= o2)%N) /\
  (kvs <> [] -> forall start limit,
     exists t, new_titer c rd (Some (start, limit)) strict = inr t /\
       forall ops, fst (ti_run c rd t ops) = c_run c (restrict c start limit kvs) CSOI ops).
Proof. exact table_roundtrip. Qed.
Print Assumptions C13_table_roundtrip_partial.

(* C.3' / C.4'  the writer theorems for BOTH compression settings ([snappy] is the writer's
   Compression = SnappyCompression: data, metaindex and index blocks go through the codec, the
   filter block does not).  The codec is any pair with decompress (compress x) = Some x whose
   encoder never returns the empty string (Writer uses pendingBH.length = 0 for "no pending
   block"; snappy.Encode always emits the length prefix).  With compression the file length does
   not bound the blocks the reader decodes, and the format's uint32 restart offsets need every
   UNCOMPRESSED block below 2^32 bytes: that is the computable condition table_sizes_ok
   (Codec/TableSizes.v: 34 bytes per pair cover the data blocks and the metaindex block; the
   index block's size - its separators come from the comparer, whose contract does not bound
   their length - is read off the model writer's final state).  The range iterator clause of
   C13_table_roundtrip covers the empty table (B.4b); that of C13_table_roundtrip_partial excludes
   it.  The codec contract is validated against golang/snappy on every
   run (Corr/C13Run.v): the model decoder Codec/Snappy.v decodes what snappy.Encode produced back to
   the input (case KSnappy) and reads the snappy tables the Go writer wrote (KTable: format
   membership with exactly the input pairs, all probes and walks). *)
Theorem C13_table_wf_of_write :
  forall tp crc compress decompress fcontains c blockSize ri fgen snappy kvs file fname verify,
  tparams_ok tp -> (forall b, (crc b < 2 ^ 32)%N) ->
  (forall x, decompress (compress x) = Some x) -> (forall x, compress x <> []) ->
  comparer_ok c -> (forall k, cmp c [] k <> Gt) -> (1 <= ri)%N ->
  sorted c kvs ->
  twrite tp crc compress c blockSize ri snappy fgen kvs = Some file -> (lenN file < 2 ^ 32)%N ->
  table_sizes_ok tp crc compress c blockSize ri snappy fgen kvs = true ->
  exists blocks seps hs,
    table_wf c (open_table tp crc decompress fcontains c file fname verify) blocks seps hs /\
    tkvs blocks = kvs.
Proof.
  intros tp crc compress decompress fcontains c blockSize ri fgen snappy kvs file fname verify Htp Hcrc Hcodec Hne Hc Hel Hri.
  exact (table_wf_of_write_z tp Htp crc Hcrc compress decompress Hcodec Hne fcontains c Hc Hel blockSize ri Hri fgen snappy kvs file fname verify).
Qed.
Print Assumptions C13_table_wf_of_write.

Theorem C13_table_roundtrip :
  forall tp crc compress decompress fcontains c blockSize ri fgen snappy kvs file fname verify strict,
  tparams_ok tp -> (forall b, (crc b < 2 ^ 32)%N) ->
  (forall x, decompress (compress x) = Some x) -> (forall x, compress x <> []) ->
  comparer_ok c -> (forall k, cmp c [] k <> Gt) -> (1 <= ri)%N ->
  sorted c kvs ->
  twrite tp crc compress c blockSize ri snappy fgen kvs = Some file -> (lenN file < 2 ^ 32)%N ->
  table_sizes_ok tp crc compress c blockSize ri snappy fgen kvs = true ->
  let rd := open_table tp crc decompress fcontains c file fname verify in
  (forall k v, In (k, v) kvs -> tget c rd k = FFound k v) /\
  (forall k, (forall v, ~ In (k, v) kvs) -> tget c rd k = FNotFound) /\
  (forall key, tfind c rd key false =
     match first_ge c key kvs 0 with
     | Some i => match nth_error kvs i with Some (k, v) => FFound k v | None => FOther end
     | None => FNotFound
     end) /\
  (exists t, new_titer c rd None strict = inr t /\
     forall ops, fst (ti_run c rd t ops) = c_run c kvs CSOI ops) /\
  (forall k1 k2, cmp c k1 k2 <> Gt ->
     exists o1 o2, toffset_of c rd k1 = Ok o1 /\ toffset_of c rd k2 = Ok o2 /\ (o1 <= o2)%N) /\
  (forall start limit,
     exists t, new_titer c rd (Some (start, limit)) strict = inr t /\
       forall ops, fst (ti_run c rd t ops) = c_run c (restrict c start limit kvs) CSOI ops).
Proof. exact table_roundtrip_z. Qed.
Print Assumptions C13_table_roundtrip.

(* the constants of the current source satisfy the layout side conditions *)
Theorem C13_table_constants_ok : tparams_ok tblp.
Proof. exact tblp_ok. Qed.
Print Assumptions C13_table_constants_ok.

(* ... and the on-disk format constants (magic, block type bytes, trailer and footer length) have
   their documented values. *)
Theorem C13_format_constants_pinned :
  tbl_magic = [87; 251; 128; 139; 36; 117; 71; 219]%N /\
  tbl_blockTypeNoCompression = 0%N /\ tbl_blockTypeSnappyCompression = 1%N /\
  tbl_blockTrailerLen = 5%N /\ tbl_footerLen = 48%N.
Proof. exact tbl_format_pinned. Qed.
Print Assumptions C13_format_constants_pinned.

(* Block level again.
   A.3b  block_no_panic on the writer's blocks only: on every block the writer produces (strictly
   increasing keys),
   no movement sequence ever puts the iterator into an error state: no Corrupted, no place where
   Go would index out of range.
   The statement for arbitrary bytes ("decoding never panics") is FALSE for the code as it is:
   without checksum verification a single altered byte in the restart array or in an entry header
   makes block.entry / block.seek slice out of range (reproduced on the implementation); with
   verification the altered block never reaches the
   decoder (C.1). *)
Theorem C13_block_no_panic_partial : forall c ri kvs,
  comparer_ok c -> (1 <= ri)%N -> (lenN (block_build ri kvs) < 2 ^ 32)%N -> sorted c kvs ->
  exists b, read_block (block_build ri kvs) = Ok b /\
    forall ops, bi_err (bi_run_final c (new_block_iter c b None false) ops) = None.
Proof. exact block_no_panic_wf. Qed.
Print Assumptions C13_block_no_panic_partial.

(* A.4  the same for the SLICED block iterator newBlockIter(b, &util.Range{start, limit}, false):
   it refines the cursor over the pairs with start <= key < limit (each bound optional), for
   every non-empty block.  (On an EMPTY block a slice with a Start bound makes block.seek read
   the restart-count word as an entry offset and the iterator reports a spurious corruption
   error without returning any pair; the model reproduces this, the theorem excludes it.) *)
Theorem C13_block_iter_sliced_refines_cursor : forall c ri kvs start limit,
  comparer_ok c -> (1 <= ri)%N -> (lenN (block_build ri kvs) < 2 ^ 32)%N -> sorted c kvs -> kvs <> [] ->
  exists b, read_block (block_build ri kvs) = Ok b /\
    forall ops, bi_run c (new_block_iter c b (Some (start, limit)) false) ops
                = c_run c (restrict c start limit kvs) CSOI ops.
Proof. exact block_iter_sliced_refines. Qed.
Print Assumptions C13_block_iter_sliced_refines_cursor.

(* Non-vacuity: the example block of the format description in leveldb/table/table.go (deck, dock,
   duck; restart interval 2) meets the hypotheses, its bytes are the ones shown there, and a walk with reversals at the restart point behaves. *)
Definition ex_kvs : list (bytes * bytes) :=
  [([100;101;99;107], [118;49]); ([100;111;99;107], [118;50]); ([100;117;99;107], [118;51])]%N.
Example C13_nonvacuous :
  comparer_ok bytewise /\ sorted bytewise ex_kvs /\ (lenN (block_build 2 ex_kvs) < 2 ^ 32)%N /\
  block_build 2 ex_kvs =
    [0;4;2;100;101;99;107;118;49; 1;3;2;111;99;107;118;50; 0;4;2;100;117;99;107;118;51;
     0;0;0;0; 17;0;0;0; 2;0;0;0]%N /\
  (match read_block (block_build 2 ex_kvs) with
   | Ok b => bi_run bytewise (new_block_iter bytewise b None false)
               [OpSeek [100;111]%N; OpNext; OpPrev; OpPrev; OpPrev; OpNext; OpLast; OpNext; OpPrev]
   | _ => []
   end) =
  [nth_error ex_kvs 1; nth_error ex_kvs 2; nth_error ex_kvs 1; nth_error ex_kvs 0; None;
   nth_error ex_kvs 0; nth_error ex_kvs 2; None; nth_error ex_kvs 2].
Proof.
  split; [exact bytewise_ok|]. split; [vm_compute; auto|]. split; [vm_compute; reflexivity|].
  split; vm_compute; reflexivity.
Qed.

(* The hypotheses of C.3/C.4 are satisfiable: the bytewise comparer is lawful and has the empty
   key least, the CRC instance stays below 2^32, the identity codec satisfies the contract, the
   generated constants satisfy tparams_ok. *)
Example C13_write_hypotheses_satisfiable :
  comparer_ok bytewise /\ (forall k, cmp bytewise [] k <> Gt) /\ (forall b, (tbl_crc b < 2 ^ 32)%N) /\
  (forall x : bytes, (fun y => Some y) ((fun y : bytes => y) x) = Some x) /\ tparams_ok tblp.
Proof.
  split; [exact bytewise_ok|]. split; [intros [|x k]; cbn; discriminate|].
  split; [intros b; unfold tbl_crc, crc_mask; apply N.mod_lt; discriminate|].
  split; [reflexivity | exact tblp_ok].
Qed.

(* Non-vacuity of table_wf: a seven-pair table written by the model writer (block size 24, restart
   interval 2, no compression, CRC-32C) has three data blocks, passes table_check when opened by
   the model reader with checksum verification, hence is table_wf; lookups behave. *)
Definition ex_tkvs : list (bytes * bytes) :=
  [([97], [1;1]); ([97;98], []); ([97;98;99], [2]); ([98], [3;3;3]); ([98;98], [4]); ([99;100], [5]); ([100], [6;6])]%N.
Definition ex_reader : treader :=
  match twrite tblp tbl_crc (fun x => x) bytewise 24 2 false None ex_tkvs with
  | Some f => open_table tblp tbl_crc (fun _ => None) (fun _ _ _ => true) bytewise f None true
  | None => tr_broken Corrupt
  end.
Example C13_table_nonvacuous :
  (exists blocks seps hs, table_wf bytewise ex_reader blocks seps hs /\ tkvs blocks = ex_tkvs /\ length blocks = 3%nat) /\
  tget bytewise ex_reader [98;98]%N = FFound [98;98]%N [4]%N /\
  tfind bytewise ex_reader [97;99]%N false = FFound [98]%N [3;3;3]%N.
Proof.
  split; [|split; vm_compute; reflexivity].
  exists [[([97], [1;1]); ([97;98], []); ([97;98;99], [2])]; [([98], [3;3;3]); ([98;98], [4]); ([99;100], [5])]; [([100], [6;6])]]%N,
         [[97;98;99]; [99;100]; [101]]%N, [mkBH 0 29; mkBH 34 30; mkBH 69 14]%N.
  split; [|split; reflexivity].
  apply (table_wfb_sound bytewise ex_reader 2). vm_compute. reflexivity.
Qed.

(* Non-vacuity of C.3'/C.4': a codec that is not the identity (one tag byte in front: never empty,
   decompress (compress x) = Some x for all x), the seven-pair table of C13_table_nonvacuous written
   by the model writer WITH compression and a filter block: the size condition evaluates to true,
   the file is below 2^32 bytes, and lookups through the model reader behave.  And the model of
   golang/snappy's decoder inverts a block snappy.Encode produced (literal + overlapping copy). *)
Definition tag_compress (x : bytes) : bytes := 7%N :: x.
Definition tag_decompress (y : bytes) : option bytes := match y with 7%N :: x => Some x | _ => None end.
Definition ex_fgen : option (bytes * (list (N * list bytes) -> bytes)) := Some ([102; 49]%N, fun _ => [0; 0; 0; 0; 11]%N).
Example C13_write_snappy_nonvacuous :
  (forall x, tag_decompress (tag_compress x) = Some x) /\ (forall x, tag_compress x <> []) /\
  table_sizes_ok tblp tbl_crc tag_compress bytewise 24 2 true ex_fgen ex_tkvs = true /\
  match twrite tblp tbl_crc tag_compress bytewise 24 2 true ex_fgen ex_tkvs with
  | Some f =>
      (lenN f <? 2 ^ 32)%N = true /\
      let rd := open_table tblp tbl_crc tag_decompress (fun _ _ _ => true) bytewise f (Some [102; 49]%N) true in
      tget bytewise rd [98;98]%N = FFound [98;98]%N [4]%N /\
      tfind bytewise rd [97;99]%N false = FFound [98]%N [3;3;3]%N /\
      table_check bytewise rd 2 = Some ex_tkvs
  | None => False
  end /\
  snappy_decode [12; 4; 97; 98; 25; 2]%N = Some [97; 98; 97; 98; 97; 98; 97; 98; 97; 98; 97; 98]%N.
Proof.
  split; [reflexivity|]. split; [discriminate|]. vm_compute. repeat split; reflexivity.
Qed.

(* B.7 is about results, not about OffsetOf beyond the last key: the same file (written with a
   filter block named "f1") read by a reader that has the policy "f1" and by a reader without a
   filter: every data handle is the same, OffsetOf of a key beyond all keys is 88 with the
   policy (the filter block's offset) and 98 without (the metaindex block's offset). *)
Example C13_policy_visible_in_offsetof_beyond_end :
  match twrite tblp tbl_crc (fun x => x) bytewise 24 2 false ex_fgen ex_tkvs with
  | Some f =>
      let rd1 := open_table tblp tbl_crc (fun _ => None) (fun _ _ _ => true) bytewise f (Some [102; 49]%N) true in
      let rd2 := open_table tblp tbl_crc (fun _ => None) (fun _ _ _ => true) bytewise f None true in
      toffset_of bytewise rd1 [122]%N = Ok 88%N /\ toffset_of bytewise rd2 [122]%N = Ok 98%N /\
      toffset_of bytewise rd1 [98]%N = toffset_of bytewise rd2 [98]%N /\
      tget_filtered bytewise rd1 [98;98]%N = tget_filtered bytewise rd2 [98;98]%N
  | None => False
  end.
Proof. vm_compute. repeat split; reflexivity. Qed.
