(* Props/C19.v — property C19: Recover rebuilds the DB from its table and journal files.
   Theorems are closed by lemmas of the model's proof files and followed by Print Assumptions; the example images defined
   here are evaluated.  Model: Store/Repair.v (recoverTable + journal replay at the level of entries,
   tables and layouts of Lsm/Lsm.v).  Structure: (1) the placement of tables is irrelevant once every table
   sits at level 0; (2) after a clean, settled shutdown Recover yields a well-formed state answering every
   read as before, with a sequence number above every stored entry; (3) with damaged data blocks every entry
   that can still be read and is the newest of its key among ALL original entries is returned, and nothing
   is returned that was not stored; (4) "settled" is necessary.
   Second part, BYTE LEVEL (Store/RepairBytes.v recover_bytes = leveldb.Recover on a storage image): the scan and the
   inner recoverTable of one file, the rebuilt table.  Third part, the whole function (Store/RepairSeqProofs.v,
   Store/RepairRefineProofs.v): db.seq of the returned DB is above every good key, and the table loop simulates
   Store/Repair.v's.  What of the byte-level refinement is not proved is listed where the second part begins. *)
From GL Require Import Base.Order Codec.IKey Codec.BytesCmp Codec.BytesCmpProofs Lsm.Lsm Lsm.Compact Lsm.LsmProofs
  Lsm.ReorgProofs Lsm.WfProofs Store.Repair Store.RepairProofs Gen.Inst Gen.ConstsOk.
From Coq Require Import Permutation.

(* (1) Level-0 lookup takes the entry with the largest sequence number among all covering tables, so a
   well-formed state whose stored (user key, sequence number) pairs are unique answers every read — at every
   sequence number — exactly as the state with all of its tables moved to level 0, which is again
   well-formed. *)
Theorem C19_all_at_level0_equiv : forall c, comparer_ok c -> forall p, kparams_ok p -> forall st,
  wf_state c p st ->
  NoDup (map keyseq (concat (map t_entries (concat (st_levels st))))) ->
  wf_state c p (flatten st) /\ forall k s, lsm_get c p (flatten st) k s = lsm_get c p st k s.
Proof. exact all_at_level0_equiv. Qed.
Print Assumptions C19_all_at_level0_equiv.

(* Reads depend on the stored entries only, not on where they are stored. *)
Theorem C19_get_same_entries : forall c, comparer_ok c -> forall p, kparams_ok p -> forall st1 st2,
  wf_state c p st1 -> wf_state c p st2 -> uniq_in (all_entries st1) ->
  same_elems (all_entries st1) (all_entries st2) ->
  forall k s, lsm_get c p st1 k s = lsm_get c p st2 k s.
Proof. exact get_same_entries. Qed.
Print Assumptions C19_get_same_entries.

(* (2) Settled shutdown: the storage holds exactly one undamaged file per live table (any level layout), the
   journal holds the write buffer's contents, numbered above every table entry; no frozen buffer, no open
   transaction.  Whatever happened to the manifest and the CURRENT pointer (Recover never reads them), for
   both settings of StrictRecovery and StrictJournal: Recover succeeds, the state it builds is well-formed,
   every read at every sequence number returns what it returned before, and the new sequence number is at
   or above every stored entry's. *)
Theorem C19_recover_settled : forall c, comparer_ok c -> forall p, kparams_ok p ->
  forall strict sj st fs js next,
  wf_state c p st ->
  NoDup (map keyseq (all_entries st)) ->
  (forall e, In e (all_entries st) -> valid p e = true) ->
  settled_image st fs js ->
  exists st' seq', recover c p strict sj fs js next = ROk st' seq' /\ wf_state c p st' /\
    (forall k s, lsm_get c p st' k s = lsm_get c p st k s) /\
    (forall e, In e (all_entries st) -> (e_seq e <= seq')%N).
Proof. exact recover_settled. Qed.
Print Assumptions C19_recover_settled.

(* (3) Damaged blocks (default options: StrictRecovery off).  fs are the table files with any set of blocks
   marked damaged; orig_entries = every entry of every block (damaged or not) plus the journal's.  If the
   original files were sorted tables with unique (user key, sequence number) pairs and the journal is
   numbered above them, Recover succeeds with a well-formed state such that
   - every entry that is still readable (journal, or undamaged block) and is the newest version of its key
     visible at s among ALL original entries is what a read at s returns (value, or "deleted");
   - every value a read returns belongs to an original entry of that key, not newer than s, not a deletion;
   - the new sequence number is at or above every readable entry's. *)
Theorem C19_recover_damaged : forall c, comparer_ok c -> forall p, kparams_ok p ->
  forall sj fs js next,
  files_ok c p fs ->
  kinds_ok p (jentries js) ->
  NoDup (map keyseq (orig_entries fs js)) ->
  (exists B, (forall e, In e (concat (map file_entries fs)) -> (e_seq e <= B)%N) /\ chain B js) ->
  exists st' seq', recover c p false sj fs js next = ROk st' seq' /\ wf_state c p st' /\
    (forall k s e, newest c k s (orig_entries fs js) None = Some e -> survives p fs js e ->
                   lsm_get c p st' k s = res_of p e) /\
    (forall k s v, lsm_get c p st' k s = GFound v ->
                   exists e, In e (orig_entries fs js) /\ e_uk e = k /\ (e_seq e <= s)%N /\
                             e_kind e <> keyTypeDel p /\ e_val e = v) /\
    (forall e, survives p fs js e -> (e_seq e <= seq')%N).
Proof. exact recover_damaged. Qed.
Print Assumptions C19_recover_damaged.

(* The general statement both follow from: the recovered state is well-formed and holds exactly the entries
   Recover kept (per file: nothing if the file is dropped, else the valid keys of its undamaged blocks) plus
   the journal's. *)
Theorem C19_recover_spec : forall c, comparer_ok c -> forall p, kparams_ok p ->
  forall strict sj fs js next,
  files_ok c p fs ->
  kinds_ok p (jentries js) ->
  NoDup (map keyseq (orig_entries fs js)) ->
  (exists B, (forall e, In e (concat (map file_entries fs)) -> (e_seq e <= B)%N) /\ chain B js) ->
  exists st' seq', recover c p strict sj fs js next = ROk st' seq' /\ wf_state c p st' /\
    Permutation (all_entries st') (surviving p strict fs js) /\
    (forall e, In e (surviving p strict fs js) -> (e_seq e <= seq')%N).
Proof. exact recover_spec. Qed.
Print Assumptions C19_recover_spec.

Definition ex (k s kd v : N) : entry := {| e_uk := [k]; e_seq := s; e_kind := kd; e_val := [v] |}.
Definition ex_state (lvls : list (list table)) : lstate :=
  {| st_mem := []; st_frozen := []; st_aux := []; st_levels := lvls |}.

(* (4) Why "settled": key 1 was written (seq 5, table 4, level 1), deleted (seq 9, table 6, level 0) and the
   compaction of both tables at the base level dropped the deletion together with the value; its output,
   table 7, holds only key 2.  A read of key 1 finds nothing.  If the compaction input table 4 has not been
   swept from the storage yet (table 6 has), Recover registers it and key 1 is back. *)
Definition ex_t4 : table := {| t_num := 4; t_entries := [ex 1 5 1 30] |}.
Definition ex_t7 : table := {| t_num := 7; t_entries := [ex 2 7 1 31] |}.

Example C19_recover_unsettled_refuted :
  let st := ex_state [[]; [ex_t7]] in
  wf_versionb bytewise kp (st_levels st) = true /\
  api_of (lsm_get bytewise kp st [1]%N 20) = None /\
  (* settled: only the live table's file *)
  (exists st' seq', recover bytewise kp false false [file_of ex_t7] [] 9 = ROk st' seq' /\
     api_of (lsm_get bytewise kp st' [1]%N 20) = None /\ api_of (lsm_get bytewise kp st' [2]%N 20) = Some [31]%N) /\
  (* not settled: the un-swept input is still there *)
  (exists st' seq', recover bytewise kp false false [file_of ex_t7; file_of ex_t4] [] 9 = ROk st' seq' /\
     api_of (lsm_get bytewise kp st' [1]%N 20) = Some [30]%N).
Proof.
  cbv zeta. split; [vm_compute; reflexivity|]. split; [vm_compute; reflexivity|]. split.
  - eexists; eexists. split; [vm_compute; reflexivity|]. split; vm_compute; reflexivity.
  - eexists; eexists. split; [vm_compute; reflexivity|]. vm_compute; reflexivity.
Qed.

(* Non-vacuity of (3): two table files of two blocks each; the second block of file 5 (holding the newest
   version of key 3 and the only version of key 4) is damaged; the journal holds a newer version of key 1.
   The hypotheses hold; key 1 reads from the journal, key 2 reads as deleted (its deletion sits in an
   undamaged block), key 3 shows the older version of file 3, key 4 is gone, and nothing else appears. *)
Definition ex_files : list tfile :=
  [ {| tf_num := 5; tf_blocks := [ {| fb_damaged := false; fb_entries := [ex 1 8 1 50; ex 2 9 0 0] |};
                                    {| fb_damaged := true; fb_entries := [ex 3 10 1 51; ex 4 11 1 52] |} ] |};
    {| tf_num := 3; tf_blocks := [ {| fb_damaged := false; fb_entries := [ex 1 2 1 40; ex 2 3 1 41] |};
                                    {| fb_damaged := false; fb_entries := [ex 3 4 1 42] |} ] |} ].
Definition ex_journal : list jbatch := [ {| jb_seq := 12; jb_recs := [ex 1 0 1 60; ex 5 0 0 0] |} ].

Example C19_nonvacuous_damaged :
  files_ok bytewise kp ex_files /\ kinds_ok kp (jentries ex_journal) /\
  NoDup (map keyseq (orig_entries ex_files ex_journal)) /\
  (exists B, (forall e, In e (concat (map file_entries ex_files)) -> (e_seq e <= B)%N) /\ chain B ex_journal) /\
  exists st' seq', recover bytewise kp false false ex_files ex_journal 6 = ROk st' seq' /\ seq' = 14%N /\
    map t_num (hd [] (st_levels st')) = [6; 5; 3]%N /\
    map (fun k => api_of (lsm_get bytewise kp st' [k]%N seq')) [1; 2; 3; 4; 5; 6]%N =
      [Some [60]; None; Some [42]; None; None; None]%N.
Proof.
  split; [|split; [|split; [|split]]].
  - repeat constructor; vm_compute; congruence.
  - repeat constructor; vm_compute; congruence.
  - vm_compute. repeat constructor; cbn [In]; intuition congruence.
  - exists 11%N. split.
    + intros e He. vm_compute in He. repeat (destruct He as [<-|He]; [vm_compute; congruence|]). destruct He.
    + vm_compute. split; [congruence|exact I].
  - eexists; eexists. split; [vm_compute; reflexivity|]. split; [reflexivity|]. split; vm_compute; reflexivity.
Qed.

(* Non-vacuity of (2): a three-level layout with an overwritten and a deleted key, write buffer replayed from
   a journal of two batches; the recovered state answers as before. *)
Definition ex_levels : list (list table) :=
  [ [ {| t_num := 9; t_entries := [ex 1 12 1 50; ex 3 11 0 0] |} ];
    [ {| t_num := 5; t_entries := [ex 1 5 1 30; ex 2 6 0 0] |};
      {| t_num := 6; t_entries := [ex 3 4 1 31; ex 4 7 1 32] |} ];
    [ {| t_num := 2; t_entries := [ex 2 1 1 20; ex 3 2 1 21] |} ] ].
Definition ex_settled : lstate :=
  {| st_mem := [ex 2 14 1 61; ex 4 15 0 0]; st_frozen := []; st_aux := []; st_levels := ex_levels |}.
Definition ex_sfiles : list tfile := map file_of [ {| t_num := 6; t_entries := [ex 3 4 1 31; ex 4 7 1 32] |};
  {| t_num := 2; t_entries := [ex 2 1 1 20; ex 3 2 1 21] |}; {| t_num := 9; t_entries := [ex 1 12 1 50; ex 3 11 0 0] |};
  {| t_num := 5; t_entries := [ex 1 5 1 30; ex 2 6 0 0] |} ].
Definition ex_sjournal : list jbatch :=
  [ {| jb_seq := 14; jb_recs := [ex 2 0 1 61] |}; {| jb_seq := 15; jb_recs := [ex 4 0 0 0] |} ].

Example C19_nonvacuous_settled :
  settled_image ex_settled ex_sfiles ex_sjournal /\
  exists st' seq', recover bytewise kp false false ex_sfiles ex_sjournal 10 = ROk st' seq' /\
    map (fun k => api_of (lsm_get bytewise kp st' [k]%N seq')) [1; 2; 3; 4]%N =
    map (fun k => api_of (lsm_get bytewise kp ex_settled [k]%N seq')) [1; 2; 3; 4]%N /\
    map (fun k => api_of (lsm_get bytewise kp st' [k]%N 10)) [1; 2; 3; 4]%N =
    map (fun k => api_of (lsm_get bytewise kp ex_settled [k]%N 10)) [1; 2; 3; 4]%N.
Proof.
  split.
  - unfold settled_image. split; [reflexivity|]. split; [reflexivity|]. split; [repeat constructor|]. split.
    + vm_compute.
      apply perm_trans with (l' := [ {| t_num := 9; t_entries := [ex 1 12 1 50; ex 3 11 0 0] |};
        {| t_num := 6; t_entries := [ex 3 4 1 31; ex 4 7 1 32] |}; {| t_num := 2; t_entries := [ex 2 1 1 20; ex 3 2 1 21] |};
        {| t_num := 5; t_entries := [ex 1 5 1 30; ex 2 6 0 0] |} ]).
      * etransitivity; [apply perm_skip; apply perm_swap|]. apply perm_swap.
      * apply perm_skip. etransitivity; [apply perm_skip; apply perm_swap|]. apply perm_swap.
    + split; [vm_compute; apply Permutation_refl|].
      exists 12%N. split.
      * intros e He. vm_compute in He. repeat (destruct He as [<-|He]; [vm_compute; congruence|]). destruct He.
      * vm_compute. repeat split; congruence.
  - eexists; eexists. split; [vm_compute; reflexivity|]. split; vm_compute; reflexivity.
Qed.

(* BYTE LEVEL (Store/RepairBytes.v recover_bytes: leveldb.Recover as one function on a storage image given as
   bytes, composed from C13's table reader, C01's model table writer, C04's manifest record codec and open_rw;
   tied to the real Recover by the KRecoverB correspondence cases on real file bytes).

   Full statements aimed at (NOT all proved; what is missing is said at each item and in props/C19.json):
     C19_recover_bytes_refines        recover_bytes = Store/Repair.v recover on the block maps blocks_of derives
                                      (proved: the fold over the table files, C19_recover_tables_refines_partial at
                                      the end of this file, under a per-file hypothesis [denotes]; missing: the
                                      equation blocks_of = the blocks of table_wf that would discharge [denotes],
                                      sort_fds on the listing order, the journal half through open_rw, the
                                      abstraction of the returned state)
     C19_recover_keeps_readable       follows from the former + C19_recover_damaged + C01_read_path_refines (not done)
     C19_recover_seq_above_all        PROVED in full for the model (third part of this file)
     C19_recover_then_open_idempotent needs C04_open_rw_* applied to the image recover_bytes leaves (not done)
   Proved below: the per-table core of the refinement, the rebuilt table, the bookkeeping of one file, the
   sequence-number bound; then (third part) the whole-function sequence-number theorem and the table-loop
   simulation. *)
From Coq Require Import List NArith ZArith Bool.
Import ListNotations.
From GL Require Import Base.Bytes Base.Cursor Codec.Block Codec.Table Codec.TableCheck Codec.TableProofs Lsm.ReadPath
  Lsm.WritePath Lsm.WritePathTable Store.OpenPath Store.RepairBytes Store.RepairBytesProofs.

(* The scan of recoverTable on bytes: let the file's reader have the index block of a well-formed table (so footer,
   metaindex and index block are intact: exactly these must be readable) and let every data block either be fetched
   as in that table or be refused as corrupted ([bad]; C13's read_block_detects: every block whose stored CRC
   differs from the CRC of its bytes is refused).  Then the scan returns exactly the pairs of the blocks that are not
   bad, in the original order — the [readable] list of Store/Repair.v for the block map the bytes denote.  The side
   condition on the fuel is computable (more pairs than bytes needs a crafted index). *)
Theorem C19_scan_skips_damaged_partial :
  forall tp tcrc decompress fname ufc verify c rd0 blocks seps hs (bad : nat -> bool) data,
  comparer_ok (ibc c) -> table_wf (ibc c) rd0 blocks seps hs ->
  let rd := rt_reader tp tcrc decompress fname ufc verify c data in
  tr_index rd = tr_index rd0 ->
  (forall j, (j < length blocks)%nat ->
     tr_fetch rd (nth j hs bh0) = if bad j then Corrupt else tr_fetch rd0 (nth j hs bh0)) ->
  let kept := concat (map (fun j => if bad j then [] else nth j blocks []) (seq 0 (length blocks))) in
  (length kept < scan_fuel data)%nat ->
  scan tp tcrc decompress fname ufc verify c data = Some kept.
Proof. exact scan_skips_damaged. Qed.
Print Assumptions C19_scan_skips_damaged_partial.

(* The inner recoverTable on bytes: verdict, counters, sequence number, record, and — when the table is rebuilt —
   the model writer's output stored under the table's name with the temporary file gone. *)
Theorem C19_recover_one_spec :
  forall rp kp tp tcrc compress decompress fname ufc verify wo c strict st num all,
  let data := match f_lookup (c_files (rb_c st)) (SW.FTable, num) with Some d => d | None => [] end in
  scan tp tcrc decompress fname ufc verify c data = Some all ->
  let g := good_of kp all in
  let corrupted := (0 <? N.of_nat (length all) - N.of_nat (length g))%N || (0 <? cblocks_of tp tcrc decompress fname ufc verify c data)%N in
  let one := recover_one_bytes rp kp tp tcrc compress decompress fname ufc verify wo c in
  if (strict && corrupted) || match g with [] => true | _ => false end then
    exists s, one strict st num = OOk (mkRB (rb_c st) (rb_rec st) (rb_maxseq st) (rb_temp st) (rb_stats st ++ [s])) /\
              ts_verdict s = TDropped /\ ts_num s = num
  else if corrupted then
    match table_bytes c kp tp tcrc compress wo g with
    | None => one strict st num = OErr OEFlush
    | Some nd =>
        exists st', one strict st num = OOk st' /\
          f_lookup (c_files (rb_c st')) (SW.FTable, num) = Some nd /\
          f_lookup (c_files (rb_c st')) (SW.FTemp, rb_temp st) = None /\
          rb_temp st' = (rb_temp st + 1)%N /\
          (tseq_of kp g <= rb_maxseq st')%N /\ (rb_maxseq st <= rb_maxseq st')%N /\
          rb_rec st' = SR.add_table rp (rb_rec st)
                         (SR.mkat 0%Z (Z.of_N num) (Z.of_N (lenN nd)) (key_first g) (key_last g)) /\
          exists s, rb_stats st' = rb_stats st ++ [s] /\ ts_verdict s = TRebuilt /\ ts_good s = N.of_nat (length g)
    end
  else
    exists st', one strict st num = OOk st' /\ c_files (rb_c st') = c_files (rb_c st) /\
      (tseq_of kp g <= rb_maxseq st')%N /\ (rb_maxseq st <= rb_maxseq st')%N /\
      rb_rec st' = SR.add_table rp (rb_rec st)
                     (SR.mkat 0%Z (Z.of_N num) (Z.of_N (lenN data)) (key_first g) (key_last g)) /\
      exists s, rb_stats st' = rb_stats st ++ [s] /\ ts_verdict s = TKept /\ ts_good s = N.of_nat (length g).
Proof. intros. apply recover_one_spec. assumption. Qed.
Print Assumptions C19_recover_one_spec.

(* The sequence number recoverTable records for a table is at least that of every good key in it (and the running
   maximum never decreases: C19_recover_one_spec).  This is the per-table core; the lift to db.seq of the state
   open_rw returns is C19_recover_seq_above_all below. *)
Theorem C19_recover_seq_above_all_partial :
  forall kp (l : list (bytes * bytes)) kv, In kv l -> (key_seq kp (fst kv) <= tseq_of kp l)%N.
Proof. exact tseq_above_all. Qed.
Print Assumptions C19_recover_seq_above_all_partial.

(* A rebuilt table passes the byte-level format check of the read path (tfile_okb) with the recorded bounds and
   decodes to exactly the good pairs in order (through C01_writer_output_ok). *)
Theorem C19_rebuilt_table_ok :
  forall c, comparer_ok c -> forall p, kparams_ok p -> forall tp, tparams_ok tp ->
  forall crc, (forall b, (crc b < 2 ^ 32)%N) ->
  forall compress decompress, (forall x, decompress (compress x) = Some x) -> (forall x, compress x <> []) ->
  forall fname ufc verify o, (1 <= wo_ri o)%N -> forall num all nd,
  let g := good_of p all in
  Cursor.sorted (ibc c) g -> g <> [] -> Forall (fun kv => key_okb p (fst kv) = true) g ->
  table_bytes c p tp crc compress o g = Some nd -> write_sizes_ok c p tp crc compress o g = true ->
  (wo_filter o = None \/
   filter_part c tp crc decompress fname ufc verify (mkTF num (key_first g) (key_last g) nd) = true) ->
  tfile_okb c p tp crc decompress fname ufc verify (wo_ri o) (mkTF num (key_first g) (key_last g) nd) = true /\
  tf_pairs c tp crc decompress fname ufc verify (wo_ri o) (mkTF num (key_first g) (key_last g) nd) = g.
Proof. exact rebuilt_table_ok. Qed.
Print Assumptions C19_rebuilt_table_ok.

(* Non-vacuity, by computation on a table the model writer writes (three entries, CRC-32C, generated constants): the
   scan returns the three pairs with largest sequence number 9; with one bit of the data block altered the block is
   refused, the scan returns nothing and one corrupted block is counted (the table would be dropped). *)
From GL Require Import Codec.TblCrc Gen.InstTbl.
Definition c19_ex_wo : wopts := mkWO 64 2 false None (fun _ => 0%N) (fun _ => 0%N) (fun _ => 0%N) 0 false.
Definition c19_ex_k (u s : N) : bytes := [u] ++ le64 (s * 256 + 1)%N.
Definition c19_ex_kvs : list (bytes * bytes) :=
  [(c19_ex_k 97 7, [1; 2; 3]%N); (c19_ex_k 98 9, [4%N]); (c19_ex_k 99 3, [])].
Definition c19_ex_data : bytes :=
  match table_bytes bytewise kp tblp tbl_crc (fun x => x) c19_ex_wo c19_ex_kvs with Some d => d | None => [] end.
Definition c19_ex_bad : bytes := match c19_ex_data with a :: b :: r => a :: N.lxor b 1 :: r | l => l end.
Example C19_nonvacuous_bytes :
  scan tblp tbl_crc (fun _ => None) None (fun _ _ _ => true) true bytewise c19_ex_data = Some c19_ex_kvs /\
  tseq_of kp c19_ex_kvs = 9%N /\
  scan tblp tbl_crc (fun _ => None) None (fun _ _ _ => true) true bytewise c19_ex_bad = Some [] /\
  cblocks_of tblp tbl_crc (fun _ => None) None (fun _ _ _ => true) true bytewise c19_ex_bad = 1%N.
Proof. vm_compute. repeat split; reflexivity. Qed.

(* WHOLE FUNCTION (Store/RepairSeqProofs.v): statements about recover_bytes itself, for every storage image with
   one binding per file name. *)
From GL Require Import Store.RepairSeqProofs.
From GL Require Codec.SessionRecord Mem.MemDB Codec.Journal.

(* C19_recover_seq_above_all (for the model; C19_recover_seq_above_all_partial above is its per-table core).  Whenever Recover
   succeeds (read-write or read-only, any options, any journal and manifest bytes):
   - there is exactly one log line per table file, in the order of the file numbers;
   - each line's counters, sequence number and verdict are the stated function of the file's ORIGINAL bytes
     (stat_of: the scan of that file, the good keys, corrupted keys, corrupted blocks, kept / rebuilt / dropped);
   - the sequence number recoverTable recorded is what the session holds after the commit, and db.seq of the
     returned DB is at or above it, hence at or above the sequence number of every good key of every table
     that was registered (kept or rebuilt);
   with no hypothesis about the journal's contents: decodeBatchToMem rejects a header whose sequence numbers leave
   the key range, so an applied batch has first seq + count <= keyMaxSeq, so recoverJournal's
   "db.seq = batchSeq + uint64(batchLen)" cannot wrap (the side condition kparams_ok on the key constants is
   re-proved for the generated constants on every run).  The code before that repair accepted such a header and
   could wrap: Props/C01.v C01_replay_seq_wrap_refuted. *)
Theorem C19_recover_seq_above_all :
  forall jcrc jp rp kp, kparams_ok kp -> forall bhl mp tp tcrc compress decompress fname ufc verify wo fgen c o strict hts img r,
  NoDup (map fst (si_files img)) ->
  recover_bytes jcrc jp rp kp bhl mp tp tcrc compress decompress fname ufc verify wo fgen c o strict hts img = OOk r ->
  map ts_num (rr_stats r) = table_files (si_files img) /\
  (rr_maxseq r <= os_seq (rr_state r))%N /\
  forall s, In s (rr_stats r) ->
    exists all, scan tp tcrc decompress fname ufc verify c (img_file (si_files img) (ts_num s)) = Some all /\
      stat_of kp tp tcrc decompress fname ufc verify c strict (ts_num s) (img_file (si_files img) (ts_num s)) all s /\
      (stat_kept s = true -> (ts_seq s <= rr_maxseq r)%N /\
         forall kv, In kv (good_of kp all) -> (key_seq kp (fst kv) <= os_seq (rr_state r))%N).
Proof. exact recover_seq_above_all. Qed.
Print Assumptions C19_recover_seq_above_all.

(* The two halves it is made of: session.commit hands the record's sequence number to the session whichever way the
   manifest is written; openDB's db.seq starts there and does not decrease, and no applied batch wraps. *)
Theorem C19_commit_hands_seq :
  forall jcrc jp rp c n o rec st st' rec', seqset rp n rec ->
  commit jcrc jp rp c o rec st = OOk (st', rec') -> s_seq (c_sess st') = n.
Proof. exact commit_seq. Qed.
Print Assumptions C19_commit_hands_seq.

Theorem C19_open_rw_seq_monotone :
  forall jcrc jp rp kp, kparams_ok kp -> forall bhl mp tp tcrc compress snappy fgen blockSize ri c o hts cs r,
  open_rw jcrc jp rp kp bhl mp tp tcrc compress snappy fgen blockSize ri c o hts cs = OOk r ->
  (forall b, In b (os_kept r) -> (fst b + snd b < 2 ^ 64)%N) /\ (s_seq (c_sess cs) <= os_seq r)%N.
Proof. exact open_rw_seq. Qed.
Print Assumptions C19_open_rw_seq_monotone.

(* Non-vacuity: the image made of the model-written table of C19_nonvacuous_bytes (number 5) and its damaged copy
   (number 7) has one binding per name; Recover succeeds on it with the generated constants; no batch was applied
   (no journal); the log lines say "kept, 3 good keys, sequence number 9" and "dropped, one corrupted block";
   db.seq = 9. *)
From GL Require Import Gen.InstMem Gen.InstJournal Gen.InstRecord Gen.Consts.
Definition c19_ex_img : simage := mkSI None [((SW.FTable, 5%N), c19_ex_data); ((SW.FTable, 7%N), c19_ex_bad)].
Definition c19_ex_recover : ores rbres :=
  recover_bytes jcrc jp rp kp ldb_batchHeaderLen mp tblp tbl_crc (fun x => x) (fun _ => None) None (fun _ _ _ => true) true
    c19_ex_wo None bytewise (mkOO false false true 4194304%Z 67108864%Z false false false [117%N]) false [] c19_ex_img.
Example C19_nonvacuous_whole :
  NoDup (map fst (si_files c19_ex_img)) /\
  exists r, c19_ex_recover = OOk r /\ os_kept (rr_state r) = [] /\
    map (fun s => (ts_num s, ts_verdict s, ts_good s, ts_cblocks s, ts_seq s)) (rr_stats r) =
      [(5, TKept, 3, 0, 9); (7, TDropped, 0, 1, 0)]%N /\
    rr_maxseq r = 9%N /\ os_seq (rr_state r) = 9%N /\ layout_of (rr_state r) = [[5%N]].
Proof.
  split.
  - cbn. repeat constructor; cbn; intuition congruence.
  - eexists. split; [vm_compute; reflexivity|]. vm_compute. repeat split; reflexivity.
Qed.

(* C19_recover_tables_refines_partial — the table half of the aimed-at C19_recover_bytes_refines.  The loop of
   recoverTable on bytes, started on the files the storage lists (one binding per name), simulates the abstract loop
   of Store/Repair.v (recover_one folded over the abstract files in the same order) whenever every table file
   DENOTES its abstract file (denotes: the scan of the bytes yields pairs whose internal keys decode — at least 8
   bytes —, whose entries are the abstract file's readable entries in order, and the number of error callbacks is
   the number of damaged blocks; C19_scan_skips_damaged_partial establishes the first two for a table with intact
   footer / metaindex / index block).  Simulation: the same running maximum of the sequence number; the record's
   added tables are, in order, the abstract model's registered tables (level 0, same number, first / last key of
   the same good entries); one log line per file with the abstract counters (good keys, corrupted keys, corrupted
   blocks, sequence number); the same number of dropped files.
   PARTIAL with respect to C19_recover_bytes_refines: (a) [denotes] is a hypothesis per file — the equation
   "blocks_of data is the block map of table_wf" that would discharge it from the bytes alone is not proved (shown
   by computation on the example below); a key shorter than 8 bytes cannot be expressed in the abstract model at
   all; (b) the abstract files are taken in the storage's listing order, the equation with sort_fds is not proved;
   (c) the journal half (open_rw's replay on journal bytes = Store/Repair.v replay) is not proved; (d) that a
   REBUILT file again denotes the good entries needs C19_rebuilt_table_ok's hypotheses and is not composed here. *)
From GL Require Import Store.RepairRefineProofs.
Theorem C19_recover_tables_refines_partial :
  forall rp kp tp tcrc compress decompress fname ufc verify wo c strict fs0 nums (fl : list Repair.tfile) st st' r,
  NoDup nums ->
  recover_loop rp kp tp tcrc compress decompress fname ufc verify wo c strict nums st = OOk st' ->
  (forall n, In n nums -> f_lookup (c_files (rb_c st)) (SW.FTable, n) = f_lookup fs0 (SW.FTable, n)) ->
  Forall2 (fun n f => Repair.tf_num f = n /\
                      denotes tp tcrc decompress fname ufc verify c (img_file fs0 n) f) nums fl ->
  sim st r ->
  sim st' (fold_left (Repair.recover_one kp strict) fl r) /\
  exists ss, rb_stats st' = rb_stats st ++ ss /\
    Forall2 (fun s f => ts_num s = Repair.tf_num f /\ ts_good s = N.of_nat (length (Repair.good kp f)) /\
                        ts_ckeys s = Repair.ckeys kp f /\ ts_cblocks s = Repair.cblocks f /\
                        ts_seq s = Repair.tseq (Repair.good kp f)) ss fl /\
    Repair.r_dropped (fold_left (Repair.recover_one kp strict) fl r) =
      (Repair.r_dropped r + N.of_nat (length (filter (fun s => negb (stat_kept s)) ss)))%N.
Proof. exact loop_refines. Qed.
Print Assumptions C19_recover_tables_refines_partial.

(* Non-vacuity: both files of c19_ex_img denote the block maps the byte model itself derives from them (blocks_of):
   three readable entries in one undamaged block; one damaged block and nothing readable.  The starting states are
   related. *)
Example C19_nonvacuous_refines :
  denotes tblp tbl_crc (fun _ => None) None (fun _ _ _ => true) true bytewise (img_file (si_files c19_ex_img) 5)
    (file_of_bytes tblp tbl_crc (fun _ => None) None (fun _ _ _ => true) true bytewise 5 c19_ex_data) /\
  denotes tblp tbl_crc (fun _ => None) None (fun _ _ _ => true) true bytewise (img_file (si_files c19_ex_img) 7)
    (file_of_bytes tblp tbl_crc (fun _ => None) None (fun _ _ _ => true) true bytewise 7 c19_ex_bad) /\
  map (fun b => (Repair.fb_damaged b, length (Repair.fb_entries b)))
      (blocks_of tblp tbl_crc (fun _ => None) None (fun _ _ _ => true) true bytewise c19_ex_data) = [(false, 3%nat)] /\
  map (fun b => (Repair.fb_damaged b, length (Repair.fb_entries b)))
      (blocks_of tblp tbl_crc (fun _ => None) None (fun _ _ _ => true) true bytewise c19_ex_bad) = [(true, 0%nat)] /\
  sim (mkRB (mkC (si_files c19_ex_img) None sess_new [] []) SR.sr_empty 0 0 []) (Repair.r_init).
Proof.
  split; [|split; [|split; [|split]]].
  - eexists. split; [vm_compute; reflexivity|]. split; [repeat constructor|]. split; vm_compute; reflexivity.
  - eexists. split; [vm_compute; reflexivity|]. split; [repeat constructor|]. split; vm_compute; reflexivity.
  - vm_compute. reflexivity.
  - vm_compute. reflexivity.
  - split; [reflexivity | constructor].
Qed.
