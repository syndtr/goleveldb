(* Props/C18M.v — the storages goleveldb runs on, against ONE storage contract (property C18).
   Models: Store/StorContract.v (the contract [cstep]; the checker's own storage [vstep]), Store/MemStorage.v
   (leveldb/storage/mem_storage.go, [mstep]), Store/FileStorageSeq.v (leveldb/storage/file_storage.go used sequentially
   without crashes, [qstep], built on Store/FileStorage.v).  Theorems are closed by lemmas of Store/ and followed by Print
   Assumptions; the witnesses are evaluated.

   memstorage_contract: for every call sequence, as long as no call is a DEVIATION ([dev_mem] / [dev_fs] /
   [dev_vstor], decidable on the implementation's own state), every result equals the contract's and the states stay
   related by an abstraction FUNCTION; the deviations are listed exhaustively below, each with a witness and a note on
   whether goleveldb's DB layer can meet it (call sites read: session.go recover / newManifest, session_util.go, table.go
   tOps.create / open / remove, tWriter.drop, db.go recoverTable / recoverJournal, db_state.go newMem, db_util.go
   checkAndCleanFiles, db_compaction.go).

   memStorage (repaired code, fix "memStorage reader and writer Close must latch closed"):
     D1 Close does nothing; no method returns ErrClosed afterwards.        DB: never calls the storage after closing it
        (leveldb.OpenFile closes the storage it opened only when Open failed / in DB.Close via db.closer); not met.
     D2 GetMeta returns the descriptor set last although no file has that name (storage.go documents os.ErrNotExist).
        DB: session.recover goes on to Open(fd), gets os.ErrNotExist there, and takes the same "no database / corrupted
        entry point" path; outcome identical.
     D3 Open / Create / Rename are refused with errFileOpen while a handle of the file is open.   DB: obeys the rule - a
        table is opened through the table cache (one reader per file, closed before tOps.remove's callback runs),
        recoverTable closes its reader before Rename(tmp, fd), a manifest / journal is read only when nobody writes it,
        file numbers are fresh (reuseFileNum gives a number back only after the writer was closed and the file removed).
     D4 numbers >= 2^60 alias (packFile shifts the number left by 4 in a uint64).   DB: file numbers count up from 1; not
        met short of a forged manifest.  Recorded as known finding memstorage-packfile-wrap.
     D5 a closed writer still writes / syncs, a closed reader still reads.   DB: no use after Close found.
     D6 (pre-repair only) a reader's bytes are overwritten after the double Close below.
   file storage:
     F0 SetMeta / GetMeta are outside THIS theorem (hence "_partial"): they are the subject of C04_setmeta_crash_atomic
        and the other theorems of Props/C04FS.v, and (K) compares them with the contract on every generated run.  Known
        differences: GetMeta falls back to CURRENT.bak when CURRENT names a missing file (witness below).
     F1 a table is also looked for under its old ".sst" name by Open and Remove (not by Rename / Create), F2 and every
        directory entry that parses is listed (an ".sst" and an ".ldb" of one number are listed twice).   DB: only
        directories written by old versions hold ".sst" names; the DB never creates both.
     F3 Create on an existing name truncates the SAME inode: open readers lose the bytes, an older open writer goes
        on writing at its own offset into the new file.   DB: never creates a name that is bound (fresh numbers), see D3.
     F4 a closed handle answers os.ErrClosed ("file already closed") to Write / Sync / Read, storage.ErrClosed only to
        Close.   DB: does not compare these errors.
     F5 an open reader sees later writes.   DB: never reads a file that is being written.
   vstor (the checker's storage): V1 Close only logs (one storage serves many reopenings), V2 = D2.  Both deliberate. *)
From Coq Require Import List NArith ZArith Bool.
From GL Require Import Base.Bytes Store.FileStorage Store.StorContract Store.MemStorage Store.MemStorageProofs
  Store.FileStorageSeq Store.FileStorageSeqProofs.
Import ListNotations.
Open Scope N_scope.

(* M1  memstorage_contract, one call: from every state satisfying the invariant of deviation-free runs, a call that is
   not a deviation returns what the contract returns and leads to the abstraction of the contract's next state. *)
Theorem C18M_memstorage_contract_step : forall m o,
  minv m -> dev_mem m o = false ->
  let '(m', r) := mstep true m o in minv m' /\ cstep (m_abs m) o = (m_abs m', r).
Proof. exact mem_step_refines. Qed.
Print Assumptions C18M_memstorage_contract_step.

(* M2  memstorage_contract: every call sequence without a deviation. *)
Theorem C18M_memstorage_contract : forall ops m,
  minv m -> mem_dev_free m ops = true ->
  let '(m', rs) := mrun true m ops in minv m' /\ crun (m_abs m) ops = (m_abs m', rs).
Proof. exact mem_run_refines. Qed.
Print Assumptions C18M_memstorage_contract.

Theorem C18M_memstorage_contract_from_empty : forall ops,
  mem_dev_free m_empty ops = true -> snd (crun c_empty ops) = snd (mrun true m_empty ops).
Proof. exact memstorage_contract_from_empty. Qed.
Print Assumptions C18M_memstorage_contract_from_empty.

Theorem C18M_new_memstorage_invariant : minv m_empty.
Proof. exact minv_empty. Qed.
Print Assumptions C18M_new_memstorage_invariant.

(* F   filestorage_contract_partial.  FULL statement wanted: the same for every call; proved: every call except SetMeta /
   GetMeta (F0), for descriptors whose number is an int64 (anything a Go caller can pass). *)
Theorem C18M_filestorage_contract_partial : forall ops s,
  qinv s -> Forall op_int64 ops -> fs_dev_free s ops = true ->
  let '(s', rs) := qrun s ops in qinv s' /\ crun (q_abs s) ops = (q_abs s', rs).
Proof. exact fs_run_refines. Qed.
Print Assumptions C18M_filestorage_contract_partial.

Theorem C18M_filestorage_contract_from_empty_partial : forall ops,
  Forall op_int64 ops -> fs_dev_free q_empty ops = true -> snd (crun c_empty ops) = snd (qrun q_empty ops).
Proof. exact filestorage_contract_from_empty. Qed.
Print Assumptions C18M_filestorage_contract_from_empty_partial.

Theorem C18M_vstor_contract : forall ops c,
  c_closed c = false -> vstor_dev_free c ops = true -> vrun c ops = crun c ops.
Proof. exact vstor_run_refines. Qed.
Print Assumptions C18M_vstor_contract.

Definition T (n : Z) : xfd := XFD 4 n.     (* a table *)
Definition M (n : Z) : xfd := XFD 1 n.     (* a manifest *)

(* non-vacuity: a run all three storages and the contract agree on, call by call *)
Definition ex_run : list sop :=
  [SLock; SLock; SCreate (T 1); HWrite 0 [1;2]; HSync 0; HClose 0; HClose 0; SOpen (T 1); SRemove (T 1); HReadAll 1;
   SCreate (T 2); HWrite 2 [7;8]; HClose 2; HClose 1; SRename (T 2) (T 3); SOpen (T 3); HReadAll 3;
   SList 15; SOpen (T 9); SRemove (T 9); SCreate (XFD 3 1); SRename (T 3) (T 3); SUnlock 0; SLock].
Example C18M_ex_agree :
  mem_dev_free m_empty ex_run = true /\ fs_dev_free q_empty ex_run = true /\ vstor_dev_free c_empty ex_run = true
  /\ snd (crun c_empty ex_run) =
     [RLockId 0; RErr ELocked; RHandle 0; ROk; ROk; ROk; RErr EClosed; RHandle 1; ROk; RData [1;2];
      RHandle 2; ROk; ROk; ROk; ROk; RHandle 3; RData [7;8];
      RList [T 3]; RErr ENotExist; RErr ENotExist; RErr EInvalid; ROk; ROk; RLockId 1]
  /\ snd (mrun true m_empty ex_run) = snd (crun c_empty ex_run)
  /\ snd (qrun q_empty ex_run) = snd (crun c_empty ex_run)
  /\ snd (vrun c_empty ex_run) = snd (crun c_empty ex_run).
Proof. vm_compute. repeat split; reflexivity. Qed.

(* the defect repaired in mem_storage.go: before, a second Close of a handle returned nil and cleared the open flag again,
   so Create succeeded under a reader opened in between (whose bytes the new writer then overwrote). *)
Definition ex_double_close : list sop :=
  [SCreate (T 1); HWrite 0 [1;2;3]; HClose 0; SOpen (T 1); HClose 0; SCreate (T 1); HReadAll 1].
Example C18M_memstorage_double_close_refuted :
  snd (mrun false m_empty ex_double_close) = [RHandle 0; ROk; ROk; RHandle 1; ROk; RHandle 2; RUnspec]
  /\ snd (mrun true m_empty ex_double_close) = [RHandle 0; ROk; ROk; RHandle 1; RErr EClosed; RErr EFileOpen; RData [1;2;3]].
Proof. vm_compute. split; reflexivity. Qed.

(* D1 *)
Example C18M_dev_mem_close :
  snd (crun c_empty [SClose; SLock; SClose]) = [ROk; RErr EClosed; RErr EClosed]
  /\ snd (mrun true m_empty [SClose; SLock; SClose]) = [ROk; RLockId 0; ROk]
  /\ dev_mem m_empty SClose = true.
Proof. vm_compute. repeat split; reflexivity. Qed.
(* D2 *)
Example C18M_dev_mem_getmeta :
  snd (crun c_empty [SSetMeta (M 1); SGetMeta]) = [ROk; RErr ENotExist]
  /\ snd (mrun true m_empty [SSetMeta (M 1); SGetMeta]) = [ROk; RFd (M 1)]
  /\ mem_dev_free m_empty [SSetMeta (M 1); SGetMeta] = false.
Proof. vm_compute. repeat split; reflexivity. Qed.
(* D3 *)
Example C18M_dev_mem_file_open :
  snd (crun c_empty [SCreate (T 1); SOpen (T 1); SCreate (T 1)]) = [RHandle 0; RHandle 1; RHandle 2]
  /\ snd (mrun true m_empty [SCreate (T 1); SOpen (T 1); SCreate (T 1)]) = [RHandle 0; RErr EFileOpen; RErr EFileOpen]
  /\ snd (mrun true m_empty [SCreate (T 1); SCreate (T 2); HClose 0; SRename (T 1) (T 2)]) = [RHandle 0; RHandle 1; ROk; RErr EFileOpen]
  /\ snd (crun c_empty [SCreate (T 1); SCreate (T 2); HClose 0; SRename (T 1) (T 2)]) = [RHandle 0; RHandle 1; ROk; ROk].
Proof. vm_compute. repeat split; reflexivity. Qed.
(* D4 *)
Example C18M_dev_mem_packfile_wrap :
  let big := T (5 + 1152921504606846976) in
  snd (crun c_empty [SCreate (T 5); HClose 0; SOpen big; SList 15]) = [RHandle 0; ROk; RErr ENotExist; RList [T 5]]
  /\ snd (mrun true m_empty [SCreate (T 5); HClose 0; SOpen big; SList 15]) = [RHandle 0; ROk; RHandle 1; RList [T 5]]
  /\ snd (mrun true m_empty [SCreate big; SList 15]) = [RHandle 0; RList [T 5]].
Proof. vm_compute. repeat split; reflexivity. Qed.
(* D5 *)
Example C18M_dev_mem_use_after_close :
  snd (crun c_empty [SCreate (T 1); HClose 0; HWrite 0 [1]; SOpen (T 1); HReadAll 1]) = [RHandle 0; ROk; RErr EClosed; RHandle 1; RData []]
  /\ snd (mrun true m_empty [SCreate (T 1); HClose 0; HWrite 0 [1]; SOpen (T 1); HReadAll 1]) = [RHandle 0; ROk; ROk; RHandle 1; RData [1]].
Proof. vm_compute. split; reflexivity. Qed.

(* F0: GetMeta falls back to CURRENT.bak *)
Definition ex_bak : list sop :=
  [SCreate (M 1); SCreate (M 2); SSetMeta (M 1); SSetMeta (M 2); SGetMeta; SRemove (M 2); SGetMeta].
Example C18M_dev_fs_getmeta_bak :
  snd (crun c_empty ex_bak) = [RHandle 0; RHandle 1; ROk; ROk; RFd (M 2); ROk; RErr ENotExist]
  /\ snd (qrun q_empty ex_bak) = [RHandle 0; RHandle 1; ROk; ROk; RFd (M 2); ROk; RFd (M 1)].
Proof. vm_compute. split; reflexivity. Qed.
(* F1 / F2: a directory holding 000005.sst *)
Definition q_sst : qst := QS [] [([48;48;48;48;48;53;46;115;115;116], 0%nat)] [[9]] [] [] false None 0.
Example C18M_dev_fs_old_names :
  snd (qrun q_sst [SOpen (T 5); HReadAll 0; SCreate (T 5); SList 4; HClose 1; SRemove (T 5); SOpen (T 5); SRename (T 5) (T 6)])
  = [RHandle 0; RData [9]; RHandle 1; RList [T 5; T 5]; ROk; ROk; RHandle 2; RErr ENotExist]
  /\ snd (crun (q_abs q_sst) [SOpen (T 5)]) = [RErr ENotExist]
  /\ dev_fs q_sst (SOpen (T 5)) = true /\ dev_fs q_sst (SList 4) = true.
Proof. vm_compute. repeat split; reflexivity. Qed.
(* F3 *)
Definition ex_trunc : list sop :=
  [SCreate (T 1); HWrite 0 [1;2;3]; SOpen (T 1); SCreate (T 1); HReadAll 1; HWrite 2 [9]; HWrite 0 [7]; SOpen (T 1); HReadAll 3].
Example C18M_dev_fs_create_truncates :
  snd (crun c_empty ex_trunc) = [RHandle 0; ROk; RHandle 1; RHandle 2; RData [1;2;3]; ROk; ROk; RHandle 3; RData [9]]
  /\ snd (qrun q_empty ex_trunc) = [RHandle 0; ROk; RHandle 1; RHandle 2; RData []; ROk; ROk; RHandle 3; RData [9;0;0;7]].
Proof. vm_compute. split; reflexivity. Qed.
(* F4 *)
Example C18M_dev_fs_closed_handle_error :
  snd (crun c_empty [SCreate (T 1); HClose 0; HWrite 0 [1]; HClose 0]) = [RHandle 0; ROk; RErr EClosed; RErr EClosed]
  /\ snd (qrun q_empty [SCreate (T 1); HClose 0; HWrite 0 [1]; HClose 0]) = [RHandle 0; ROk; RErr EOsClosed; RErr EClosed].
Proof. vm_compute. split; reflexivity. Qed.
(* F5 *)
Example C18M_dev_fs_live_reader :
  snd (crun c_empty [SCreate (T 1); HWrite 0 [1]; SOpen (T 1); HWrite 0 [2]; HReadAll 1]) = [RHandle 0; ROk; RHandle 1; ROk; RData [1]]
  /\ snd (qrun q_empty [SCreate (T 1); HWrite 0 [1]; SOpen (T 1); HWrite 0 [2]; HReadAll 1]) = [RHandle 0; ROk; RHandle 1; ROk; RData [1;2]].
Proof. vm_compute. split; reflexivity. Qed.
(* V1, V2 *)
Example C18M_dev_vstor :
  snd (vrun c_empty [SClose; SLock; SSetMeta (M 1); SGetMeta]) = [ROk; RLockId 0; ROk; RFd (M 1)]
  /\ snd (crun c_empty [SClose; SLock; SSetMeta (M 1); SGetMeta]) = [ROk; RErr EClosed; RErr EClosed; RErr EClosed]
  /\ snd (crun c_empty [SSetMeta (M 1); SGetMeta]) = [ROk; RErr ENotExist].
Proof. vm_compute. repeat split; reflexivity. Qed.
