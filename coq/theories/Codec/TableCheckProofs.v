(* Codec/TableCheckProofs.v — soundness of the executable membership check: a reader that passes
   [table_wfb] is a well-formed table in the sense of [table_wf], so every Stage B theorem applies
   to it (in particular to every implementation-written file the correspondence run accepts). *)
From GL Require Import Base.BytesProofs Base.OrderProofs Codec.BlockEnc Codec.TableProofs Codec.TableCheck.
From Coq Require Import ZArith Lia.

Local Open Scope N_scope.

Lemma block_eqb_eq a b : block_eqb a b = true -> a = b.
Proof.
  unfold block_eqb. intros H. apply andb_prop in H as [H H3]. apply andb_prop in H as [H1 H2].
  apply beq_eq in H1. apply N.eqb_eq in H2, H3. destruct a, b; cbn in *. congruence.
Qed.

Lemma is_built_good ri kvs b : 1 <= ri -> is_built ri kvs b = true -> good_block b kvs.
Proof.
  intros Hri H. unfold is_built in H. apply andb_prop in H as [H1 H2].
  assert (Hsz : lenN (block_build ri kvs) < 2 ^ 32) by (change (2 ^ 32) with two32; lia).
  rewrite (read_block_build ri kvs Hri Hsz) in H2. apply block_eqb_eq in H2. subst b.
  exists (b_off ri kvs), (b_ris ri kvs). apply build_layout; assumption.
Qed.

Lemma sortedb_from_ok c k l : sortedb_from c k l = true -> sorted_from c k l.
Proof.
  revert k. induction l as [|[k' v'] r IH]; intros k H; cbn [sortedb_from sorted_from] in *; [exact I|].
  apply andb_prop in H as [H1 H2]. split; [|apply IH; exact H2].
  unfold Order.ltb in H1. destruct (cmp c k k'); congruence.
Qed.

Lemma sortedb_ok c l : sortedb c l = true -> sorted c l.
Proof. destruct l as [|[k v] r]; cbn [sortedb sorted]; [trivial | apply sortedb_from_ok]. Qed.

Lemma steps_mono (f : nat -> N) m : (forall j, (S j < m)%nat -> f j <= f (S j)) ->
  forall i j, (i <= j)%nat -> (j < m)%nat -> f i <= f j.
Proof.
  intros Hstep i j Hij. induction Hij as [|j Hij IH]; intros Hjm; [apply N.le_refl|].
  apply N.le_trans with (f j); [apply IH, Nat.lt_succ_l, Hjm | apply Hstep, Hjm].
Qed.

Theorem table_wfb_sound c rd ri blocks seps hs :
  table_wfb c rd ri blocks seps hs = true -> table_wf c rd blocks seps hs.
Proof.
  unfold table_wfb. intros H.
  repeat (apply andb_prop in H; destruct H as [H ?]).
  rename H0 into Hne, H1 into Hsorted, H2 into Hall, H3 into Hidx, H4 into Hri, H5 into Hm, H6 into Hlh.
  apply Nat.eqb_eq in H, Hlh. apply Nat.ltb_lt in Hm. apply N.leb_le in Hri.
  (* the conjuncts of the check at block j, as propositions *)
  assert (Hj : forall j, (j < length blocks)%nat ->
    (exists b, tr_fetch rd (nth j hs bh_zero) = Ok b /\ good_block b (nth j blocks [])) /\
    bh_off (nth j hs bh_zero) < 2 ^ 64 /\ bh_len (nth j hs bh_zero) < 2 ^ 64 /\
    (forall x, In x (nth j blocks []) -> cmp c (fst x) (nth j seps []) <> Gt) /\
    (forall x, In x (nth (S j) blocks []) -> cmp c (nth j seps []) (fst x) = Lt) /\
    ((S j < length blocks)%nat -> bh_off (nth j hs bh_zero) <= bh_off (nth (S j) hs bh_zero)) /\
    bh_off (nth j hs bh_zero) <= tr_dataEnd rd).
  { clear Hne Hsorted Hidx. intros j Hjm. rewrite forallb_forall in Hall.
    specialize (Hall j (proj2 (in_seq _ _ _) (conj (Nat.le_0_l j) Hjm))). cbv beta in Hall.
    repeat (apply andb_prop in Hall; destruct Hall as [Hall ?]).
    rename H0 into Hend, H1 into Hnext, H2 into Hlt, H3 into Hge, H4 into Hlen, H5 into Hoff.
    split; [|split; [apply N.ltb_lt, Hoff | split; [apply N.ltb_lt, Hlen | split; [|split; [|split]]]]].
    - destruct (tr_fetch rd (nth j hs bh_zero)) as [b| |]; try discriminate.
      exists b. split; [reflexivity | exact (is_built_good ri _ b Hri Hall)].
    - intros x Hin. rewrite forallb_forall in Hge. exact (proj1 (leb_le c _ _) (Hge x Hin)).
    - intros x Hin. rewrite forallb_forall in Hlt. exact (proj1 (ltb_lt c _ _) (Hlt x Hin)).
    - intros L. rewrite (proj2 (Nat.ltb_lt _ _) L) in Hnext. apply N.leb_le, Hnext.
    - apply N.leb_le, Hend. }
  constructor.
  - exact H.
  - exact Hlh.
  - exact Hm.
  - destruct (tr_index rd) as [ib| |]; try discriminate. exists ib. split; [reflexivity|].
    exact (is_built_good 1 _ ib (N.le_refl 1) Hidx).
  - intros j Hjm. apply (Hj j Hjm).
  - intros j Hjm. destruct (Hj j Hjm) as (_ & H1 & H2 & _). split; assumption.
  - apply sortedb_ok. exact Hsorted.
  - apply orb_prop in Hne as [Hne|Hne].
    + left. intros j Hjm. rewrite forallb_forall in Hne.
      specialize (Hne (nth j blocks []) (nth_In _ _ Hjm)).
      destruct (nth j blocks []); discriminate.
    + right. destruct blocks as [|[|] [|]]; try discriminate. reflexivity.
  - intros j x Hjm. apply (Hj j Hjm).
  - intros j x Hjm. apply (Hj j (Nat.lt_succ_l _ _ Hjm)).
  - apply (steps_mono (fun j => bh_off (nth j hs bh0))). intros j Hjm.
    apply (Hj j (Nat.lt_succ_l _ _ Hjm)), Hjm.
  - intros j Hjm. apply (Hj j Hjm).
Qed.

Theorem table_check_sound c rd ri kvs : table_check c rd ri = Some kvs ->
  exists blocks seps hs, table_wf c rd blocks seps hs /\ tkvs blocks = kvs.
Proof.
  unfold table_check. destruct (table_parse rd) as [[[bl se] hs]|]; [|discriminate].
  destruct (table_wfb c rd ri bl se hs) eqn:E; [|discriminate].
  intros H. injection H as <-. exists bl, se, hs. split; [apply (table_wfb_sound c rd ri); exact E | reflexivity].
Qed.
