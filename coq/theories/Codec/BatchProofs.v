(* Codec/BatchProofs.v — the batch codec (Codec/Batch.v) on well-formed input: the batch appendRec builds from a
   record list (batch_of_spec), the decoder's loop over an encoding (decode_all), and Load/decodeBatch undo
   Dump/appendRec for every record list (load_dump, batch_roundtrip).  Cut and arbitrary input are in
   BatchCutProofs.v, the journal record of a merged group in BatchGroupProofs.v. *)
From GL Require Import Base.VarintProofs Codec.Batch.
From Coq Require Import Lia.
Open Scope N_scope.

Lemma int64_small z : (- two63 <= z < two63)%Z -> int64 z = z.
Proof.
  unfold int64, two63, two64. intros H.
  rewrite Z.mod_small by lia. lia.
Qed.

Lemma int_of_u64_small x : x < 2 ^ 63 -> int_of_u64 x = Z.of_N x.
Proof.
  intros H. unfold int_of_u64. apply int64_small. unfold two63.
  change (2 ^ 63) with 9223372036854775808 in H. lia.
Qed.

Lemma u64_small x : x < 2 ^ 64 -> u64 x = x.
Proof. intros H. unfold u64. change (2 ^ 64) with 18446744073709551616 in H. apply N.mod_small. exact H. Qed.

Lemma u32_small x : x < 2 ^ 32 -> u32 x = x.
Proof. intros H. unfold u32. change (2 ^ 32) with 4294967296 in H. apply N.mod_small. exact H. Qed.

Lemma u64_of_int_small z : (0 <= z < two64)%Z -> u64_of_int z = Z.to_N z.
Proof. intros H. unfold u64_of_int. rewrite Z.mod_small by exact H. reflexivity. Qed.

Lemma zlen_app a b : zlen (a ++ b) = (zlen a + zlen b)%Z.
Proof. unfold zlen. rewrite lenN_app. lia. Qed.

Lemma zget_app pre b post : zget (pre ++ b :: post) (Z.of_N (lenN pre)) = Some b.
Proof.
  unfold zget. replace (Z.of_N (lenN pre) <? 0)%Z with false by lia.
  replace (Z.to_nat (Z.of_N (lenN pre))) with (length pre) by (unfold lenN; lia).
  rewrite nth_error_app2 by lia. rewrite Nat.sub_diag. reflexivity.
Qed.

Lemma zdrop_ok data n : n <= lenN data -> zdrop data (Z.of_N n) = Some (dropN n data).
Proof.
  intros H. unfold zdrop, zlen.
  replace ((0 <=? Z.of_N n) && (Z.of_N n <=? Z.of_N (lenN data)))%Z with true by lia.
  rewrite N2Z.id. reflexivity.
Qed.

Lemma zdrop_app pre post : zdrop (pre ++ post) (Z.of_N (lenN pre)) = Some post.
Proof. rewrite zdrop_ok by (rewrite lenN_app; lia). rewrite dropN_app. reflexivity. Qed.

Lemma zslice_ok data lo hi : lo <= hi -> hi <= lenN data ->
  zslice data (Z.of_N lo) (Z.of_N hi) = Some (sliceN lo hi data).
Proof.
  intros H1 H2. unfold zslice, zlen.
  replace ((0 <=? Z.of_N lo) && (Z.of_N lo <=? Z.of_N hi) && (Z.of_N hi <=? Z.of_N (lenN data)))%Z with true by lia.
  rewrite !N2Z.id. reflexivity.
Qed.

Lemma zslice_app3 a b d :
  zslice (a ++ b ++ d) (Z.of_N (lenN a)) (Z.of_N (lenN a + lenN b)) = Some b.
Proof.
  rewrite zslice_ok by (rewrite ?lenN_app; lia). rewrite sliceN_app3. reflexivity.
Qed.

Lemma zslice_mid l a b d o e :
  l = a ++ b ++ d -> o = Z.of_N (lenN a) -> e = (o + Z.of_N (lenN b))%Z -> zslice l o e = Some b.
Proof. intros -> -> ->. rewrite <- N2Z.inj_add. apply zslice_app3. Qed.

Lemma uvarint_f_cont p : forall i x s,
  Forall (fun b => 128 <= b) p -> i + lenN p <= 10 -> uvarint_f p i x s = UvShort.
Proof.
  induction p as [|b r IH]; intros i x s Hc Hl; [reflexivity|].
  rewrite lenN_cons in Hl. inversion Hc as [|? ? Hb Hr]; subst.
  cbn [uvarint_f]. replace (i =? 10) with false by lia. replace (b <? 128) with false by lia.
  apply IH; [exact Hr | lia].
Qed.

Lemma uvarint_strict_prefix x j :
  j < lenN (put_uvarint x) -> uvarint (takeN j (put_uvarint x)) = UvShort.
Proof.
  intros Hj. unfold uvarint. apply uvarint_f_cont.
  - unfold takeN. apply put_uvarint_f_firstn. unfold lenN, put_uvarint in Hj. lia.
  - pose proof (put_uvarint_length x). rewrite lenN_takeN by lia. lia.
Qed.

Section Proofs.
  Variable p : kparams.
  Hypothesis pok : kparams_ok p.

  Lemma val_lt_256 : keyTypeVal p < 256.
  Proof. destruct pok as (_ & H1 & _ & H2 & _). lia. Qed.

  (* a record the API can produce: the kind is keyTypeDel or keyTypeVal; only kind <= keyTypeVal is used *)
  Definition rec_ok (r : brec) : Prop := fst (fst r) <= keyTypeVal p.

  (* the batchIndex appendRec builds for a record appended at offset o *)
  Definition rec_idx (o : N) (r : brec) : bidx :=
    match r with (kt, k, v) =>
      let kpos := o + 1 + lenN (put_uvarint (lenN k)) in
      if kt =? keyTypeVal p then
        mkidx kt (Z.of_N kpos) (Z.of_N (lenN k))
              (Z.of_N (kpos + lenN k + lenN (put_uvarint (lenN v)))) (Z.of_N (lenN v))
      else mkidx kt (Z.of_N kpos) (Z.of_N (lenN k)) 0%Z 0%Z
    end.

  Fixpoint idxs_of (o : N) (recs : list brec) : list bidx :=
    match recs with
    | [] => []
    | r :: t => rec_idx o r :: idxs_of (o + lenN (enc_rec p r)) t
    end.

  (* internalLen contributed by a record list *)
  Fixpoint ilen_of (recs : list brec) : Z :=
    match recs with
    | [] => 0%Z
    | (kt, k, v) :: t =>
        (Z.of_N (lenN k) + (if (kt =? keyTypeVal p)%N then Z.of_N (lenN v) else 0) + 8 + ilen_of t)%Z
    end.

  Lemma enc_rec_len r : 2 <= lenN (enc_rec p r).
  Proof.
    destruct r as [[kt k] v]. unfold enc_rec. rewrite lenN_cons, !lenN_app.
    pose proof (put_uvarint_length (lenN k)). lia.
  Qed.

  Lemma enc_recs_cons r t : enc_recs p (r :: t) = enc_rec p r ++ enc_recs p t.
  Proof. reflexivity. Qed.

  Lemma enc_recs_app a b : enc_recs p (a ++ b) = enc_recs p a ++ enc_recs p b.
  Proof. unfold enc_recs. rewrite map_app, concat_app. reflexivity. Qed.

  Lemma enc_recs_len recs : 2 * N.of_nat (length recs) <= lenN (enc_recs p recs).
  Proof.
    induction recs as [|r t IH]; [cbn; lia|].
    rewrite enc_recs_cons, lenN_app. pose proof (enc_rec_len r). cbn [length]. lia.
  Qed.

  Lemma append_rec_spec b kt k v :
    b_data (append_rec p b kt k v) = b_data b ++ enc_rec p (kt, k, v) /\
    b_index (append_rec p b kt k v) = b_index b ++ [rec_idx (lenN (b_data b)) (kt, k, v)] /\
    b_ilen (append_rec p b kt k v) = (b_ilen b + ilen_of [(kt, k, v)])%Z.
  Proof.
    unfold append_rec, enc_rec, rec_idx. cbn [ilen_of].
    destruct (kt =? keyTypeVal p); cbn [b_data b_index b_ilen].
    - split; [|split].
      + cbn [app]. rewrite <- ?app_assoc. reflexivity.
      + rewrite lenN_cons. do 2 f_equal. f_equal; f_equal; lia.
      + lia.
    - split; [|split].
      + cbn [app]. rewrite ?app_nil_r. reflexivity.
      + rewrite lenN_cons. do 2 f_equal. f_equal; f_equal; lia.
      + lia.
  Qed.

  Lemma ilen_of_app a b : ilen_of (a ++ b) = (ilen_of a + ilen_of b)%Z.
  Proof. induction a as [|[[kt k] v] a IH]; cbn [app ilen_of]; lia. Qed.

  Lemma idxs_of_app a b o : idxs_of o (a ++ b) = idxs_of o a ++ idxs_of (o + lenN (enc_recs p a)) b.
  Proof.
    revert o. induction a as [|r a IH]; intros o; cbn [app idxs_of].
    - cbn. rewrite N.add_0_r. reflexivity.
    - rewrite IH. rewrite enc_recs_cons, lenN_app. do 3 f_equal. lia.
  Qed.

  Lemma fold_append_spec recs : forall b,
    let b' := fold_left (fun b r => match r with (kt, k, v) => append_rec p b kt k v end) recs b in
    b_data b' = b_data b ++ enc_recs p recs /\
    b_index b' = b_index b ++ idxs_of (lenN (b_data b)) recs /\
    b_ilen b' = (b_ilen b + ilen_of recs)%Z.
  Proof.
    induction recs as [|[[kt k] v] t IH]; intros b; cbn [fold_left].
    - cbn. rewrite !app_nil_r. split; [|split]; try reflexivity. lia.
    - destruct (append_rec_spec b kt k v) as (D & I & L).
      specialize (IH (append_rec p b kt k v)). cbv zeta in IH. destruct IH as (D' & I' & L').
      cbv zeta. rewrite D', I', L', D, I, L. split; [|split].
      + rewrite enc_recs_cons, app_assoc. reflexivity.
      + cbn [idxs_of]. rewrite <- app_assoc. cbn [app]. rewrite lenN_app. reflexivity.
      + change ((kt, k, v) :: t) with ([(kt, k, v)] ++ t). rewrite ilen_of_app. lia.
  Qed.

  Theorem batch_of_spec recs :
    batch_of p recs = mkbatch (enc_recs p recs) (idxs_of 0 recs) (ilen_of recs).
  Proof.
    pose proof (fold_append_spec recs batch_empty) as H. cbv zeta in H.
    destruct H as (D & I & L). fold (batch_of p recs) in D, I, L.
    destruct (batch_of p recs) as [d ix il]. cbn [b_data b_index b_ilen batch_empty app lenN length N.of_nat] in *.
    rewrite D, I, L. f_equal.
  Qed.

  Lemma decode_step A (fn : A -> Z -> bidx -> cbres A) pre r post f i a :
    rec_ok r -> lenN (pre ++ enc_rec p r ++ post) < 2 ^ 63 ->
    decode_loop p (S f) (pre ++ enc_rec p r ++ post) fn i (Z.of_N (lenN pre)) a =
    match fn a i (rec_idx (lenN pre) r) with
    | CbOk a' => decode_loop p f (pre ++ enc_rec p r ++ post) fn (i + 1)%Z (Z.of_N (lenN (pre ++ enc_rec p r))) a'
    | CbErr e a' => DErr e a'
    | CbPanic => DPanic
    | CbFuel => DFuel
    end.
  Proof.
    destruct r as [[kt k] v]. unfold rec_ok. cbn [fst]. intros Hk Hlen.
    pose proof val_lt_256 as H256.
    change (2 ^ 63) with 9223372036854775808 in Hlen.
    set (data := pre ++ enc_rec p (kt, k, v) ++ post) in *.
    assert (Hkt : kt mod 256 = kt) by (apply N.mod_small; lia).
    set (vk := put_uvarint (lenN k)) in *.
    pose proof (put_uvarint_length (lenN k)) as Hvk. fold vk in Hvk.
    set (tailv := if kt =? keyTypeVal p then put_uvarint (lenN v) ++ v else []).
    assert (Edata : data = pre ++ kt :: (vk ++ k ++ tailv ++ post)).
    { unfold data, enc_rec. rewrite Hkt. fold vk. fold tailv. cbn [app]. rewrite <- !app_assoc. reflexivity. }
    assert (Ldata : lenN data = lenN pre + 1 + lenN vk + lenN k + lenN tailv + lenN post).
    { rewrite Edata. rewrite lenN_app, lenN_cons, !lenN_app. lia. }
    cbn [decode_loop].
    replace (Z.of_N (lenN pre) <? zlen data)%Z with true by (unfold zlen; lia).
    rewrite Edata at 1. rewrite zget_app.
    replace (keyTypeVal p <? kt) with false by lia.
    assert (D1 : zdrop data (Z.of_N (lenN pre) + 1)%Z = Some (vk ++ k ++ tailv ++ post)).
    { replace (Z.of_N (lenN pre) + 1)%Z with (Z.of_N (lenN (pre ++ [kt]))) by (rewrite lenN_app, lenN_cons, lenN_nil; lia).
      rewrite Edata. change (pre ++ kt :: (vk ++ k ++ tailv ++ post)) with (pre ++ [kt] ++ (vk ++ k ++ tailv ++ post)).
      rewrite app_assoc. apply zdrop_app. }
    rewrite D1. unfold vk at 1. rewrite uvarint_put by (change (2 ^ 64) with 18446744073709551616; lia).
    fold vk. cbv zeta.
    rewrite int_of_u64_small by (change (2 ^ 63) with 9223372036854775808; lia).
    set (o2 := (Z.of_N (lenN pre) + 1 + Z.of_N (lenN vk))%Z).
    assert (Eo2 : o2 = Z.of_N (lenN pre + 1 + lenN vk)) by (unfold o2; lia).
    rewrite (u64_of_int_small (zlen data - o2)) by (unfold zlen, two64; lia).
    replace (Z.to_N (zlen data - o2) <? lenN k) with false by (unfold zlen; lia).
    rewrite (int64_small (o2 + Z.of_N (lenN k))) by (unfold two63; lia).
    unfold rec_idx. fold vk.
    destruct (kt =? keyTypeVal p) eqn:Ekt.
    - unfold tailv in *. clear tailv.
      set (vv := put_uvarint (lenN v)) in *.
      pose proof (put_uvarint_length (lenN v)) as Hvv. fold vv in Hvv.
      rewrite lenN_app in Ldata.
      assert (D2 : zdrop data (o2 + Z.of_N (lenN k))%Z = Some (vv ++ v ++ post)).
      { replace (o2 + Z.of_N (lenN k))%Z with (Z.of_N (lenN (pre ++ [kt] ++ vk ++ k)))
          by (rewrite !lenN_app, lenN_cons, lenN_nil; lia).
        rewrite Edata.
        replace (pre ++ kt :: vk ++ k ++ (vv ++ v) ++ post) with ((pre ++ [kt] ++ vk ++ k) ++ (vv ++ v ++ post))
          by (rewrite <- ?app_assoc; cbn [app]; rewrite <- ?app_assoc; reflexivity).
        apply zdrop_app. }
      rewrite D2. unfold vv at 1. rewrite uvarint_put by (change (2 ^ 64) with 18446744073709551616; lia).
      fold vv.
      rewrite (u64_of_int_small (zlen data - (o2 + Z.of_N (lenN k) + Z.of_N (lenN vv)))) by (unfold zlen, two64; lia).
      replace (Z.to_N (zlen data - (o2 + Z.of_N (lenN k) + Z.of_N (lenN vv))) <? lenN v) with false by (unfold zlen; lia).
      rewrite int_of_u64_small by (change (2 ^ 63) with 9223372036854775808; lia).
      rewrite (int64_small (o2 + Z.of_N (lenN k) + Z.of_N (lenN vv) + Z.of_N (lenN v))) by (unfold two63; lia).
      replace (mkidx kt o2 (Z.of_N (lenN k)) (o2 + Z.of_N (lenN k) + Z.of_N (lenN vv))%Z (Z.of_N (lenN v)))
        with (mkidx kt (Z.of_N (lenN pre + 1 + lenN vk)) (Z.of_N (lenN k))
                    (Z.of_N (lenN pre + 1 + lenN vk + lenN k + lenN vv)) (Z.of_N (lenN v)))
        by (f_equal; lia).
      destruct (fn a i _); try reflexivity.
      f_equal. unfold enc_rec. rewrite Ekt, Hkt. fold vk. fold vv.
      rewrite lenN_app, lenN_cons, !lenN_app. lia.
    - replace (mkidx kt o2 (Z.of_N (lenN k)) 0 0) with (mkidx kt (Z.of_N (lenN pre + 1 + lenN vk)) (Z.of_N (lenN k)) 0 0)%Z
        by (f_equal; lia).
      destruct (fn a i _); try reflexivity.
      f_equal. unfold enc_rec. rewrite Ekt, Hkt. fold vk.
      rewrite lenN_app, lenN_cons, !lenN_app, lenN_nil. lia.
  Qed.

  (* the callbacks, in order, starting at record number i *)
  Fixpoint cb_fold {A} (fn : A -> Z -> bidx -> cbres A) (i : Z) (a : A) (ixs : list bidx) : cbres A :=
    match ixs with
    | [] => CbOk a
    | ix :: r =>
        match fn a i ix with
        | CbOk a' => cb_fold fn (i + 1)%Z a' r
        | e => e
        end
    end.

  Lemma decode_recs A (fn : A -> Z -> bidx -> cbres A) recs : forall pre post fuel i a,
    Forall rec_ok recs -> lenN (pre ++ enc_recs p recs ++ post) < 2 ^ 63 ->
    (length recs <= fuel)%nat ->
    decode_loop p fuel (pre ++ enc_recs p recs ++ post) fn i (Z.of_N (lenN pre)) a =
    match cb_fold fn i a (idxs_of (lenN pre) recs) with
    | CbOk a' => decode_loop p (fuel - length recs) (pre ++ enc_recs p recs ++ post) fn
                   (i + Z.of_nat (length recs))%Z (Z.of_N (lenN (pre ++ enc_recs p recs))) a'
    | CbErr e a' => DErr e a'
    | CbPanic => DPanic
    | CbFuel => DFuel
    end.
  Proof.
    induction recs as [|r t IH]; intros pre post fuel i a Hok Hlen Hf.
    - cbn [cb_fold idxs_of length enc_recs map concat app]. rewrite Nat.sub_0_r, Z.add_0_r, app_nil_r. reflexivity.
    - inversion Hok as [|? ? Hr Ht]; subst.
      destruct fuel as [|f]; [cbn in Hf; lia|]. cbn [length] in Hf.
      rewrite enc_recs_cons in *. rewrite <- app_assoc in *.
      rewrite (decode_step A fn pre r (enc_recs p t ++ post) f i a Hr Hlen).
      cbn [idxs_of cb_fold].
      destruct (fn a i (rec_idx (lenN pre) r)) as [a'| | |]; try reflexivity.
      specialize (IH (pre ++ enc_rec p r) post f (i + 1)%Z a' Ht).
      rewrite <- !app_assoc in IH. rewrite IH by (try exact Hlen; lia).
      rewrite lenN_app.
      destruct (cb_fold fn (i + 1)%Z a' (idxs_of (lenN pre + lenN (enc_rec p r)) t)); try reflexivity.
      cbn [length]. replace (S f - S (length t))%nat with (f - length t)%nat by lia.
      replace (i + 1 + Z.of_nat (length t))%Z with (i + Z.of_nat (S (length t)))%Z by lia.
      rewrite !app_assoc. reflexivity.
  Qed.

  Lemma decode_loop_end A (fn : A -> Z -> bidx -> cbres A) data f i a :
    decode_loop p (S f) data fn i (zlen data) a = DOk a.
  Proof. cbn [decode_loop]. rewrite Z.ltb_irrefl. reflexivity. Qed.

  (* the whole of a record list, nothing after it *)
  Lemma decode_all A (fn : A -> Z -> bidx -> cbres A) recs a :
    Forall rec_ok recs -> lenN (enc_recs p recs) < 2 ^ 63 ->
    decode_loop p (decode_fuel (enc_recs p recs)) (enc_recs p recs) fn 0%Z 0%Z a =
    match cb_fold fn 0%Z a (idxs_of 0 recs) with
    | CbOk a' => DOk a'
    | CbErr e a' => DErr e a'
    | CbPanic => DPanic
    | CbFuel => DFuel
    end.
  Proof.
    intros Hok Hlen.
    pose proof (decode_recs A fn recs [] [] (decode_fuel (enc_recs p recs)) 0%Z a Hok) as H.
    cbn [app lenN length N.of_nat] in H. rewrite app_nil_r in H.
    pose proof (enc_recs_len recs) as Hl.
    assert (Hf : (length recs < decode_fuel (enc_recs p recs))%nat).
    { unfold decode_fuel. unfold lenN in Hl. lia. }
    change (Z.of_N 0) with 0%Z in H. rewrite H by (try exact Hlen; lia).
    destruct (cb_fold fn 0%Z a (idxs_of 0 recs)); try reflexivity.
    destruct (decode_fuel (enc_recs p recs) - length recs)%nat as [|f] eqn:E; [lia|].
    apply decode_loop_end.
  Qed.

  (* Batch.decode's callback collects the index *)
  Lemma decode_cb_fold ixs : forall i b,
    cb_fold decode_cb i b ixs =
    CbOk (mkbatch (b_data b) (b_index b ++ ixs)
                  (fold_left (fun z ix => int64 (z + (bi_klen ix + bi_vlen ix + 8))%Z) ixs (b_ilen b))).
  Proof.
    induction ixs as [|ix r IH]; intros i b; cbn [cb_fold fold_left].
    - rewrite app_nil_r. destruct b; reflexivity.
    - unfold decode_cb at 1. rewrite IH. cbn [b_data b_index b_ilen]. rewrite <- app_assoc. reflexivity.
  Qed.

  Lemma ilen_fold recs : forall o z,
    (0 <= z)%Z -> (z + ilen_of recs < two63)%Z ->
    fold_left (fun z ix => int64 (z + (bi_klen ix + bi_vlen ix + 8))%Z) (idxs_of o recs) z = (z + ilen_of recs)%Z.
  Proof.
    induction recs as [|[[kt k] v] t IH]; intros o z Hz Hb; cbn [idxs_of fold_left ilen_of] in *; [lia|].
    assert (E : (bi_klen (rec_idx o (kt, k, v)) + bi_vlen (rec_idx o (kt, k, v)) + 8 =
                 Z.of_N (lenN k) + (if (kt =? keyTypeVal p)%N then Z.of_N (lenN v) else 0) + 8)%Z).
    { unfold rec_idx. destruct (kt =? keyTypeVal p); cbn [bi_klen bi_vlen]; lia. }
    rewrite E.
    assert (Hnn : (0 <= ilen_of t)%Z).
    { clear. induction t as [|[[a b] c] t IH]; cbn [ilen_of]; [lia|]. destruct (a =? keyTypeVal p); lia. }
    rewrite int64_small by (unfold two63 in *; destruct (kt =? keyTypeVal p); lia).
    rewrite IH by (destruct (kt =? keyTypeVal p); lia). lia.
  Qed.

  Lemma ilen_of_bound recs : (0 <= ilen_of recs <= 9 * Z.of_N (lenN (enc_recs p recs)))%Z.
  Proof.
    induction recs as [|[[kt k] v] t IH]; [cbn; lia|].
    rewrite enc_recs_cons, lenN_app. cbn [ilen_of]. unfold enc_rec.
    rewrite lenN_cons, !lenN_app.
    pose proof (put_uvarint_length (lenN k)). 
    destruct (kt =? keyTypeVal p); rewrite ?lenN_app, ?lenN_nil; pose proof (put_uvarint_length (lenN v)); lia.
  Qed.

  (* Load(Dump(b)) rebuilds b — data, index and internalLen — for every batch built by Put/Delete/appendRec
     calls; its records are the ones written (a record that is not a value record has no value).  Stated in
     Props/C01.v as C01_batch_roundtrip.  The bound is 2^59 and not 2^63 because internalLen, an int as well, can
     reach 9 times the length of the data (ilen_of_bound). *)
  Theorem load_dump recs :
    Forall rec_ok recs -> lenN (enc_recs p recs) < 2 ^ 59 ->
    batch_load p (batch_dump (batch_of p recs)) = DOk (batch_of p recs).
  Proof.
    intros Hok Hlen. rewrite batch_of_spec. unfold batch_dump, batch_load, batch_decode. cbn [b_data].
    assert (Hlen' : lenN (enc_recs p recs) < 2 ^ 63).
    { change (2 ^ 59) with 576460752303423488 in Hlen. change (2 ^ 63) with 9223372036854775808. lia. }
    rewrite (decode_all batch decode_cb recs _ Hok Hlen').
    rewrite decode_cb_fold. cbn [b_data b_index b_ilen app].
    pose proof (ilen_of_bound recs) as Hb.
    rewrite ilen_fold by (unfold two63; change (2 ^ 59) with 576460752303423488 in Hlen; lia).
    replace ((0 <=? -1) && negb (Z.of_nat (length (idxs_of 0 recs)) =? -1))%Z with false by lia.
    rewrite Z.add_0_l. reflexivity.
  Qed.

  Lemma idx_k_rec pre kt k v post :
    rec_ok (kt, k, v) -> lenN (pre ++ enc_rec p (kt, k, v) ++ post) < 2 ^ 63 ->
    idx_k (pre ++ enc_rec p (kt, k, v) ++ post) (rec_idx (lenN pre) (kt, k, v)) = Some k /\
    idx_v (pre ++ enc_rec p (kt, k, v) ++ post) (rec_idx (lenN pre) (kt, k, v)) =
      Some (if kt =? keyTypeVal p then v else []).
  Proof.
    unfold rec_ok. cbn [fst]. intros Hk Hlen. pose proof val_lt_256 as H256.
    change (2 ^ 63) with 9223372036854775808 in Hlen.
    assert (Hkt : kt mod 256 = kt) by (apply N.mod_small; lia).
    unfold enc_rec, rec_idx, idx_k, idx_v in *. rewrite Hkt in *.
    set (vk := put_uvarint (lenN k)) in *.
    destruct (kt =? keyTypeVal p) eqn:Ekt; cbn [bi_kpos bi_klen bi_vpos bi_vlen].
    - set (vv := put_uvarint (lenN v)) in *.
      assert (Hlen2 := Hlen). rewrite lenN_app, lenN_app, lenN_cons, !lenN_app in Hlen2.
      rewrite !int64_small by (unfold two63; lia).
      split.
      + apply (zslice_mid _ (pre ++ kt :: vk) k (vv ++ v ++ post));
          [rewrite <- ?app_assoc; cbn [app]; rewrite <- ?app_assoc; reflexivity|rewrite lenN_app, lenN_cons; lia|lia].
      + destruct (Z.of_N (lenN v) =? 0)%Z eqn:Ev.
        * f_equal. assert (lenN v = 0) by lia. symmetry. apply lenN_0. assumption.
        * apply (zslice_mid _ (pre ++ kt :: vk ++ k ++ vv) v post);
            [rewrite <- ?app_assoc; cbn [app]; rewrite <- ?app_assoc; reflexivity
            |rewrite lenN_app, lenN_cons, !lenN_app; lia|lia].
    - assert (Hlen2 := Hlen). rewrite lenN_app, lenN_app, lenN_cons, !lenN_app in Hlen2.
      rewrite !int64_small by (unfold two63; lia).
      split; [|reflexivity].
      apply (zslice_mid _ (pre ++ kt :: vk) k post);
        [rewrite <- ?app_assoc; cbn [app]; rewrite <- ?app_assoc; reflexivity|rewrite lenN_app, lenN_cons; lia|lia].
  Qed.

  Lemma idx_records_recs recs : forall pre post,
    Forall rec_ok recs -> lenN (pre ++ enc_recs p recs ++ post) < 2 ^ 63 ->
    idx_records (pre ++ enc_recs p recs ++ post) (idxs_of (lenN pre) recs) = Some (map (norm_rec p) recs).
  Proof.
    induction recs as [|[[kt k] v] t IH]; intros pre post Hok Hlen; [reflexivity|].
    inversion Hok as [|? ? Hr Ht]; subst.
    cbn [idxs_of idx_records map]. rewrite enc_recs_cons in *. rewrite <- app_assoc in *.
    destruct (idx_k_rec pre kt k v (enc_recs p t ++ post) Hr Hlen) as [Ek Ev].
    rewrite Ek, Ev. cbn [bi_kt].
    specialize (IH (pre ++ enc_rec p (kt, k, v)) post Ht).
    rewrite <- !app_assoc in IH. rewrite (lenN_app pre (enc_rec p (kt, k, v))) in IH. rewrite IH by exact Hlen.
    cbn [option_map norm_rec]. f_equal. f_equal. f_equal.
    unfold rec_idx. destruct (kt =? keyTypeVal p); reflexivity.
  Qed.

  Theorem batch_roundtrip recs :
    Forall rec_ok recs -> lenN (enc_recs p recs) < 2 ^ 59 ->
    exists b, batch_load p (batch_dump (batch_of p recs)) = DOk b /\
              batch_records b = Some (map (norm_rec p) recs) /\
              batch_len b = N.of_nat (length recs).
  Proof.
    intros Hok Hlen. exists (batch_of p recs). split; [apply load_dump; assumption|].
    rewrite batch_of_spec. unfold batch_records, batch_len. cbn [b_data b_index].
    assert (Hlen' : lenN (enc_recs p recs) < 2 ^ 63).
    { change (2 ^ 59) with 576460752303423488 in Hlen. change (2 ^ 63) with 9223372036854775808. lia. }
    split.
    - pose proof (idx_records_recs recs [] [] Hok) as H. cbn [app lenN length N.of_nat] in H.
      rewrite app_nil_r in H. apply H. exact Hlen'.
    - unfold lenN. f_equal. clear. generalize 0. induction recs as [|r t IH]; intros o; cbn [idxs_of length]; [reflexivity|].
      f_equal. apply IH.
  Qed.
End Proofs.
