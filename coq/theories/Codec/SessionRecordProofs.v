(* Codec/SessionRecordProofs.v — binary.ReadUvarint against PutUvarint (whole and cut), what the readers can
   return on arbitrary bytes and how much they consume, decode's switch as "read an item, store it", decode one
   round at a time, and totality of decode on arbitrary bytes. *)
From GL Require Import Base.VarintProofs Codec.SessionRecordSpec.
From Coq Require Import Lia.
Open Scope N_scope.

Lemma sr_two64_pow : sr_two64 = 2 ^ 64. Proof. reflexivity. Qed.
Lemma sr_two63_pow : sr_two63 = 2 ^ 63. Proof. reflexivity. Qed.

Lemma i64_small x : x < sr_two63 -> i64_of_u64 x = Z.of_N x.
Proof. intros H. unfold i64_of_u64. replace (x <? sr_two63) with true by lia. reflexivity. Qed.

Lemma i64_big_neg x : sr_two63 <= x -> x < sr_two64 -> (i64_of_u64 x < 0)%Z.
Proof.
  intros H1 H2. unfold i64_of_u64. replace (x <? sr_two63) with false by lia.
  unfold sr_two63, sr_two64 in *. lia.
Qed.

Lemma i64_of_to_N z : z_in63 z -> i64_of_u64 (Z.to_N z) = z.
Proof.
  intros [H0 H1]. rewrite i64_small.
  - apply Z2N.id. exact H0.
  - unfold sr_two63 in *. lia.
Qed.

Lemma u64_of_small z : z_in63 z -> u64_of_i64 z = Z.to_N z.
Proof.
  intros [H0 H1]. unfold u64_of_i64. rewrite Z.mod_small; [reflexivity|].
  unfold sr_two63, sr_two64 in *. lia.
Qed.

Lemma to_N_lt64 z : z_in63 z -> Z.to_N z < 2 ^ 64.
Proof. intros [H0 H1]. rewrite <- sr_two64_pow. unfold sr_two63, sr_two64 in *. lia. Qed.

Lemma i64_nonneg_small x : (0 <= i64_of_u64 x)%Z -> x < sr_two64 -> x < sr_two63.
Proof.
  intros H H2. destruct (N.ltb_spec x sr_two63) as [Hlt|Hge]; [exact Hlt|].
  pose proof (i64_big_neg x Hge H2). lia.
Qed.

Lemma read_uvarint_f_of_uvarint_f buf : forall fuel i x s v n,
  N.of_nat fuel + i = 10 -> uvarint_f buf i x s = UvOk v n ->
  read_uvarint_f fuel i x s buf = RvOk v (dropN (n - i) buf).
Proof.
  induction buf as [|b rest IH]; intros fuel i x s v n Hf H; cbn [uvarint_f] in H; [discriminate|].
  destruct (i =? 10) eqn:E10; [discriminate|].
  destruct fuel as [|f]; [lia|]. cbn [read_uvarint_f].
  destruct (b <? 128).
  - destruct ((i =? 9) && (1 <? b)); [discriminate|]. injection H as <- <-.
    replace (i + 1 - i) with 1 by lia. reflexivity.
  - pose proof (uvarint_f_ok_bounds _ _ _ _ _ _ H) as [Hb _].
    rewrite (IH f (i + 1) _ _ v n) by (try exact H; lia).
    f_equal. unfold dropN. replace (N.to_nat (n - i)) with (S (N.to_nat (n - (i + 1)))) by lia. reflexivity.
Qed.

Lemma read_uvarint_put x rest : x < 2 ^ 64 -> read_uvarint (put_uvarint x ++ rest) = RvOk x rest.
Proof.
  intros H. unfold read_uvarint.
  rewrite (read_uvarint_f_of_uvarint_f _ 10 0 0 0 x (lenN (put_uvarint x))).
  - rewrite N.sub_0_r, dropN_app. reflexivity.
  - reflexivity.
  - apply (uvarint_put x rest H).
Qed.

Lemma read_uvarint_f_cont l : forall fuel i x s, Forall (fun b => 128 <= b) l -> (length l < fuel)%nat ->
  read_uvarint_f fuel i x s l = if (i =? 0) && (match l with [] => true | _ => false end) then RvEOF else RvUnexpEOF.
Proof.
  induction l as [|b rest IH]; intros fuel i x s Hl Hf.
  - destruct fuel; [cbn [length] in Hf; lia|]. cbn [read_uvarint_f]. rewrite andb_true_r. reflexivity.
  - destruct fuel; [cbn [length] in Hf; lia|]. cbn [read_uvarint_f].
    inversion Hl as [|? ? Hb Hr]; subst. replace (b <? 128) with false by lia.
    rewrite IH by (try exact Hr; cbn [length] in Hf; lia).
    replace (i + 1 =? 0) with false by lia. rewrite andb_false_r. reflexivity.
Qed.

Lemma put_uvarint_length_nat x : (1 <= length (put_uvarint x) <= 10)%nat.
Proof. pose proof (put_uvarint_length x) as H. unfold lenN in H. lia. Qed.

(* a strict prefix of an encoding: nothing at all, or the middle of a varint *)
Lemma read_uvarint_cut x n : (n < length (put_uvarint x))%nat ->
  read_uvarint (firstn n (put_uvarint x)) = if Nat.eqb n 0 then RvEOF else RvUnexpEOF.
Proof.
  intros Hn. unfold read_uvarint. rewrite read_uvarint_f_cont.
  - destruct n as [|n]; [reflexivity|]. cbn [Nat.eqb].
    destruct (put_uvarint x) as [|b l] eqn:E; [cbn [length] in Hn; lia|]. reflexivity.
  - apply put_uvarint_f_firstn. exact Hn.
  - rewrite firstn_length. pose proof (put_uvarint_length_nat x). lia.
Qed.

Lemma read_uvarint_f_shrink buf : forall fuel i x s v rest,
  read_uvarint_f fuel i x s buf = RvOk v rest -> (length rest < length buf)%nat.
Proof.
  induction buf as [|b l IH]; intros fuel i x s v rest H; destruct fuel; cbn [read_uvarint_f] in H; try discriminate.
  - destruct (i =? 0); discriminate.
  - destruct (b <? 128).
    + destruct ((i =? 9) && (1 <? b)); [discriminate|]. injection H as _ <-. cbn [length]. lia.
    + apply IH in H. cbn [length]. lia.
Qed.

Lemma read_uvarint_shrink buf v rest : read_uvarint buf = RvOk v rest -> (length rest < length buf)%nat.
Proof. apply read_uvarint_f_shrink. Qed.

(* on arbitrary bytes a reader consumes or fails with a corruption error that names its field *)
Definition rd_good {A} (f : rfield) (buf : bytes) (m : rd A) : Prop :=
  match m with
  | ROk _ rest => (length rest <= length buf)%nat
  | RErr e => exists why, e = ECorrupt f why
  | RPanic => False
  end.

Lemma read_uv_good f buf : rd_good f buf (read_uv f buf).
Proof.
  unfold read_uv, read_uv_may_eof. destruct (read_uvarint buf) eqn:E; cbn [rd_good].
  - apply read_uvarint_shrink in E. lia.
  - eexists; reflexivity.
  - eexists; reflexivity.
  - eexists; reflexivity.
Qed.

Lemma read_uv_strict f buf v rest : read_uv f buf = ROk v rest -> (length rest < length buf)%nat.
Proof.
  unfold read_uv, read_uv_may_eof. destruct (read_uvarint buf) eqn:E; try discriminate.
  intros H. injection H as <- <-. apply read_uvarint_shrink in E. exact E.
Qed.

Lemma length_dropN_le {A} n (l : list A) : (length (dropN n l) <= length l)%nat.
Proof. unfold dropN. rewrite skipn_length. lia. Qed.

Lemma uv_then_good {A} f buf (k : N -> bytes -> rd A) :
  (forall x rest, (length rest <= length buf)%nat -> rd_good f buf (k x rest)) ->
  rd_good f buf (rdo x, rest <- read_uv f buf; k x rest).
Proof.
  intros Hk. pose proof (read_uv_good f buf) as G.
  destruct (read_uv f buf) as [x rest|e|]; cbn [rbind rd_good] in *; [apply Hk|..]; exact G.
Qed.

Lemma read_varint_good f buf : rd_good f buf (read_varint f buf).
Proof.
  apply uv_then_good. intros x rest L.
  destruct (i64_of_u64 x <? 0)%Z; cbn [rd_good]; [eexists; reflexivity|exact L].
Qed.

Lemma read_level_good f buf : rd_good f buf (read_level f buf).
Proof.
  apply uv_then_good. intros x rest L.
  destruct ((i64_of_u64 x <? 0)%Z || negb (u64_of_i64 (i64_of_u64 x) =? x)); cbn [rd_good]; [eexists; reflexivity|exact L].
Qed.

Lemma read_bytes_good f buf : rd_good f buf (read_bytes f buf).
Proof.
  apply uv_then_good. intros x rest L. destruct (lenN rest <? x); cbn [rd_good]; [eexists; reflexivity|].
  pose proof (length_dropN_le x rest). lia.
Qed.

(* the level a reader returns is a non-negative int, numbers are non-negative int64s, a byte string read is
   never longer than what was left: nothing is allocated from an unchecked length *)
Lemma read_level_range f buf l rest : read_level f buf = ROk l rest -> (0 <= l)%Z.
Proof.
  unfold read_level. destruct (read_uv f buf) as [x r|e|]; cbn [rbind]; try discriminate.
  destruct (i64_of_u64 x <? 0)%Z eqn:E; cbn [orb]; [discriminate|].
  destruct (negb _); [discriminate|]. intros H. injection H as <- _. lia.
Qed.

Lemma read_varint_range f buf z rest : read_varint f buf = ROk z rest -> (0 <= z)%Z.
Proof.
  unfold read_varint. destruct (read_uv f buf) as [x r|e|]; cbn [rbind]; try discriminate.
  destruct (i64_of_u64 x <? 0)%Z eqn:E; [discriminate|]. intros H. injection H as <- _. lia.
Qed.

Lemma read_bytes_bounded f buf x rest : read_bytes f buf = ROk x rest -> (length x + length rest <= length buf)%nat.
Proof.
  unfold read_bytes. destruct (read_uv f buf) as [n r|e|] eqn:E; cbn [rbind]; try discriminate.
  destruct (lenN r <? n) eqn:El; [discriminate|]. intros H. injection H as <- <-.
  apply read_uv_strict in E. unfold takeN, dropN. rewrite firstn_length, skipn_length. lia.
Qed.

Section Proofs.
  Variable p : rparams.

  (* a compound reader keeps the good property when every step has it for its own field; the fields of one
     tag differ, so the statement is: some corruption error, never a panic, never a bare EOF *)
  Definition rd_fine {A} (buf : bytes) (m : rd A) : Prop :=
    match m with
    | ROk _ rest => (length rest <= length buf)%nat
    | RErr e => is_corrupted e = true
    | RPanic => False
    end.

  Lemma good_fine {A} f buf (m : rd A) : rd_good f buf m -> rd_fine buf m.
  Proof. destruct m; cbn; try tauto. intros [why ->]. reflexivity. Qed.

  Lemma rbind_fine {A B} buf (m : rd A) (k : A -> bytes -> rd B) :
    rd_fine buf m -> (forall a rest, (length rest <= length buf)%nat -> rd_fine rest (k a rest)) ->
    rd_fine buf (rbind m k).
  Proof.
    intros Hm Hk. destruct m as [a rest|e|]; cbn [rbind rd_fine] in *; try exact Hm.
    specialize (Hk a rest Hm). destruct (k a rest); cbn [rd_fine] in *; try exact Hk. lia.
  Qed.

  Lemma fine_weaken {A} buf buf' (m : rd A) : rd_fine buf' m -> (length buf' <= length buf)%nat -> rd_fine buf m.
  Proof. destruct m; cbn [rd_fine]; try tauto. lia. Qed.

  (* decode's switch in two steps: the position of the tag in [tags p] (8 for an unknown tag, which is skipped),
     then the readers of that case, which yield the field as an item; the record comes in only when the item is
     stored.  tag_ix tests the tags in the order of decode's (Go's switch's) cases and returns positions in
     [tags p], whose order is different. *)
  Definition tag_ix (tag : N) : nat :=
    if tag =? tComparer p then 0%nat else if tag =? tJournalNum p then 1%nat else if tag =? tPrevJournalNum p then 7%nat
    else if tag =? tNextFileNum p then 2%nat else if tag =? tSeqNum p then 3%nat else if tag =? tCompPtr p then 4%nat
    else if tag =? tAddTable p then 6%nat else if tag =? tDelTable p then 5%nat else 8%nat.

  Definition read_kind (k : nat) (buf : bytes) : rd (option item) :=
    match k with
    | 0%nat => rdo x, rest <- read_bytes FComparer buf; ROk (Some (IComparer x)) rest
    | 1%nat => rdo x, rest <- read_varint FJournalNum buf; ROk (Some (IJournal x)) rest
    | 2%nat => rdo x, rest <- read_varint FNextFileNum buf; ROk (Some (INextFile x)) rest
    | 3%nat => rdo x, rest <- read_uv FSeqNum buf; ROk (Some (ISeq x)) rest
    | 4%nat => rdo level, rest <- read_level FCpLevel buf;
           rdo ikey, rest <- read_bytes FCpIkey rest;
           ROk (Some (ICompPtr (mkcp level ikey))) rest
    | 5%nat => rdo level, rest <- read_level FDelLevel buf;
           rdo num, rest <- read_varint FDelNum rest;
           ROk (Some (IDel (mkdt level num))) rest
    | 6%nat => rdo level, rest <- read_level FAddLevel buf;
           rdo num, rest <- read_varint FAddNum rest;
           rdo size, rest <- read_varint FAddSize rest;
           rdo imin, rest <- read_bytes FAddImin rest;
           rdo imax, rest <- read_bytes FAddImax rest;
           ROk (Some (IAdd (mkat level num size imin imax))) rest
    | 7%nat => rdo x, rest <- read_varint FPrevJournalNum buf; ROk (Some (IPrevJournal x)) rest
    | _ => ROk None buf
    end.

  Definition store (r : srec) (oi : option item) : srec :=
    match oi with Some it => apply_item p r it | None => r end.

  Lemma decode_field_read tag r buf :
    decode_field p tag r buf = rdo oi, rest <- read_kind (tag_ix tag) buf; ROk (store r oi) rest.
  Proof.
    unfold decode_field, decode_field_with, tag_ix.
    repeat match goal with |- context [if tag =? ?t then _ else _] => destruct (tag =? t) end;
      cbn [read_kind rbind];
      repeat match goal with |- context [rbind (?R ?f ?b) _] => destruct (R f b) as [? ?|?|]; cbn [rbind] end;
      reflexivity.
  Qed.

  Lemma read_kind_fine k buf : rd_fine buf (read_kind k buf).
  Proof.
    do 8 (try destruct k as [|k]); cbn [read_kind];
      repeat (apply rbind_fine;
              [eauto using good_fine, read_bytes_good, read_level_good, read_varint_good, read_uv_good|intros ? ? ?]);
      cbn [rd_fine]; lia.
  Qed.

  Lemma decode_field_fine tag r buf : rd_fine buf (decode_field p tag r buf).
  Proof.
    rewrite decode_field_read. apply rbind_fine; [apply read_kind_fine|]. intros oi rest _. apply le_n.
  Qed.

  Lemma decode_loop_fuel f1 : forall f2 r b, (length b < f1)%nat -> (length b < f2)%nat ->
    decode_loop p f1 r b = decode_loop p f2 r b.
  Proof.
    induction f1 as [|f1 IH]; intros f2 r b H1 H2; [lia|]. destruct f2 as [|f2]; [lia|].
    unfold decode_loop in *. cbn [decode_loop_with].
    unfold read_uv_may_eof. destruct (read_uvarint b) as [tag rest| | |] eqn:E; try reflexivity.
    apply read_uvarint_shrink in E.
    pose proof (decode_field_fine tag r rest) as F. unfold decode_field in F.
    destruct (decode_field_with p read_bytes read_level tag r rest) as [r' rest'|e|]; try reflexivity.
    cbn [rd_fine] in F. apply IH; lia.
  Qed.

  (* one round of decode's loop: read the tag, read and store the item, go on with the rest *)
  Lemma decode_unfold r b :
    decode p r b =
    match read_uv_may_eof FHeader true b with
    | RErr EEOF => DOk r
    | RErr e => DErr e r
    | RPanic => DPanic
    | ROk tag rest =>
        match decode_field p tag r rest with
        | ROk r' rest' => decode p r' rest'
        | RErr e => DErr e r
        | RPanic => DPanic
        end
    end.
  Proof.
    unfold decode at 1. unfold decode_loop. cbn [decode_loop_with].
    unfold read_uv_may_eof. destruct (read_uvarint b) as [tag rest| | |] eqn:E; try reflexivity.
    apply read_uvarint_shrink in E.
    pose proof (decode_field_fine tag r rest) as F. unfold decode_field in *.
    destruct (decode_field_with p read_bytes read_level tag r rest) as [r' rest'|e|]; try reflexivity.
    cbn [rd_fine] in F. unfold decode. apply (decode_loop_fuel (length b) (S (length rest')) r' rest'); lia.
  Qed.

  Lemma decode_nil r : decode p r [] = DOk r.
  Proof. reflexivity. Qed.

  (* a statement about all record states and inputs may be proved assuming it of the state and input a round of
     decode leaves: every round consumes a byte *)
  Lemma decode_rounds (P : srec -> bytes -> Prop) :
    (forall r b,
       (forall tag rest r' rest', read_uv_may_eof FHeader true b = ROk tag rest ->
                                  decode_field p tag r rest = ROk r' rest' -> P r' rest') -> P r b) ->
    forall r b, P r b.
  Proof.
    intros step r b. remember (length b) as n eqn:L. revert r b L.
    induction n as [n IH] using lt_wf_ind. intros r b ->. apply step. intros tag rest r' rest' E F.
    unfold read_uv_may_eof in E. destruct (read_uvarint b) as [v t| | |] eqn:U; try discriminate.
    injection E as -> ->. apply read_uvarint_shrink in U.
    pose proof (decode_field_fine tag r rest) as G. rewrite F in G. cbn [rd_fine] in G.
    apply (IH (length rest')); [lia|reflexivity].
  Qed.

  Definition dres_fine (d : dres) : Prop :=
    match d with
    | DOk _ => True
    | DErr e _ => exists f why, e = ECorrupt f why
    | DPanic | DFuel => False
    end.

  (* On ARBITRARY bytes, starting from any record state: a record or an ErrCorrupted naming a field and one of
     the four reasons; no panic, no bare EOF, fuel never runs out. *)
  Theorem decode_total r b : dres_fine (decode p r b).
  Proof.
    revert r b. apply decode_rounds. intros r b IH. rewrite decode_unfold.
    unfold read_uv_may_eof in *. destruct (read_uvarint b) as [tag rest| | |]; cbn [dres_fine];
      try (do 2 eexists; reflexivity); try exact I.
    pose proof (decode_field_fine tag r rest) as F.
    destruct (decode_field p tag r rest) as [r' rest'|e|] eqn:E; cbn [rd_fine] in F.
    - apply (IH tag rest r' rest' eq_refl E).
    - destruct e as [fl why|]; [do 2 eexists; reflexivity|discriminate].
    - contradiction.
  Qed.
End Proofs.

(* the tags are pairwise different: a comparison between two of them is decided by their positions in [tags p] *)
Lemma NoDup_nth_eqb (l : list N) i j : NoDup l -> (i < length l)%nat -> (j < length l)%nat ->
  (nth i l 0 =? nth j l 0) = (i =? j)%nat.
Proof.
  intros H Hi Hj. destruct (Nat.eqb_spec i j) as [->|Hn]; [apply N.eqb_refl|].
  apply N.eqb_neq. intros E. apply Hn. exact (proj1 (NoDup_nth l 0) H i j Hi Hj E).
Qed.

Lemma tags_eqb p i j : rparams_ok p -> (i < 8)%nat -> (j < 8)%nat ->
  (nth i (tags p) 0 =? nth j (tags p) 0) = (i =? j)%nat.
Proof. intros [H _]. apply (NoDup_nth_eqb (tags p)), H. Qed.

(* writes the eight tags in the goal as positions of [tags p], the form [tags_eqb] rewrites *)
Ltac tags_by_position p :=
  change (tComparer p) with (nth 0 (tags p) 0); change (tJournalNum p) with (nth 1 (tags p) 0);
  change (tNextFileNum p) with (nth 2 (tags p) 0); change (tSeqNum p) with (nth 3 (tags p) 0);
  change (tCompPtr p) with (nth 4 (tags p) 0); change (tDelTable p) with (nth 5 (tags p) 0);
  change (tAddTable p) with (nth 6 (tags p) 0); change (tPrevJournalNum p) with (nth 7 (tags p) 0).

Definition item_ix (it : item) : nat :=
  match it with
  | IComparer _ => 0%nat | IJournal _ => 1%nat | INextFile _ => 2%nat | ISeq _ => 3%nat
  | ICompPtr _ => 4%nat | IDel _ => 5%nat | IAdd _ => 6%nat | IPrevJournal _ => 7%nat
  end.

Lemma item_ix_lt it : (item_ix it < 8)%nat.
Proof. destruct it; cbn [item_ix]; lia. Qed.

Lemma tag_of_nth p it : tag_of p it = nth (item_ix it) (tags p) 0.
Proof. destruct it; reflexivity. Qed.

Lemma tag_ix_nth p i : rparams_ok p -> (i < 8)%nat -> tag_ix p (nth i (tags p) 0) = i.
Proof.
  intros pok Hi. unfold tag_ix. tags_by_position p. rewrite !(tags_eqb p) by (try exact pok; lia).
  do 8 (destruct i as [|i]; [reflexivity|]). lia.
Qed.
