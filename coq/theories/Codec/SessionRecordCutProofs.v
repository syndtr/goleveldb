(* Codec/SessionRecordCutProofs.v — decode on the first n bytes of an encoding, for every n (decode_cut); hence
   the round trip (n = everything) and the prefix theorem. *)
From GL Require Import Base.VarintProofs Codec.SessionRecordSpec Codec.SessionRecordProofs.
From Coq Require Import Lia.
Open Scope N_scope.

Lemma firstn_app_lt {A} n (a t : list A) : (n < length a)%nat -> firstn n (a ++ t) = firstn n a.
Proof. intros H. rewrite firstn_app. replace (n - length a)%nat with O by lia. cbn [firstn]. apply app_nil_r. Qed.

Lemma firstn_app_ge {A} n (a t : list A) : (length a <= n)%nat -> firstn n (a ++ t) = a ++ firstn (n - length a) t.
Proof. intros H. rewrite firstn_app, firstn_all2 by exact H. reflexivity. Qed.

(* whole: the reader undoes the encoding whatever follows; cut: on a strict prefix it reports a short read *)
Definition reads {A} (R : bytes -> rd A) (f : rfield) (e : bytes) (v : A) : Prop :=
  (forall rest, R (e ++ rest) = ROk v rest) /\
  (forall n, (n < length e)%nat -> R (firstn n e) = RErr (ECorrupt f RShort)).

Lemma reads_firstn {A} (R : bytes -> rd A) f e v : reads R f e v -> forall n tail,
  R (firstn n (e ++ tail)) =
  if (length e <=? n)%nat then ROk v (firstn (n - length e) tail) else RErr (ECorrupt f RShort).
Proof.
  intros [Hw Hc] n tail. destruct (Nat.leb_spec (length e) n) as [Hle|Hlt].
  - rewrite firstn_app_ge by exact Hle. apply Hw.
  - rewrite firstn_app_lt by exact Hlt. apply Hc. exact Hlt.
Qed.

Lemma reads_uv f x : x < 2 ^ 64 -> reads (read_uv f) f (put_uvarint x) x.
Proof.
  intros Hx. split.
  - intros rest. unfold read_uv, read_uv_may_eof. rewrite read_uvarint_put by exact Hx. reflexivity.
  - intros n Hn. unfold read_uv, read_uv_may_eof. rewrite read_uvarint_cut by exact Hn.
    destruct (Nat.eqb n 0); reflexivity.
Qed.

Lemma reads_varint f z : z_in63 z -> reads (read_varint f) f (put_uvarint (Z.to_N z)) z.
Proof.
  intros Hz. destruct (reads_uv f (Z.to_N z) (to_N_lt64 z Hz)) as [Hw Hc]. split.
  - intros rest. unfold read_varint. rewrite Hw. cbn [rbind]. rewrite i64_of_to_N by exact Hz.
    destruct Hz as [H0 _]. replace (z <? 0)%Z with false by lia. reflexivity.
  - intros n Hn. unfold read_varint. rewrite Hc by exact Hn. reflexivity.
Qed.

Lemma reads_level f l : z_in63 l -> reads (read_level f) f (put_level l) l.
Proof.
  intros Hz. unfold put_level. rewrite u64_of_small by exact Hz.
  destruct (reads_uv f (Z.to_N l) (to_N_lt64 l Hz)) as [Hw Hc]. split.
  - intros rest. unfold read_level. rewrite Hw. cbn [rbind]. rewrite i64_of_to_N by exact Hz.
    rewrite u64_of_small by exact Hz. rewrite N.eqb_refl.
    destruct Hz as [H0 _]. replace (l <? 0)%Z with false by lia. reflexivity.
  - intros n Hn. unfold read_level. rewrite Hc by exact Hn. reflexivity.
Qed.

Lemma lenN_firstn_lt {A} n (l : list A) : (n < length l)%nat -> lenN (firstn n l) < lenN l.
Proof. intros H. unfold lenN. rewrite firstn_length. lia. Qed.

Lemma reads_bytes f b : len_ok b -> reads (read_bytes f) f (put_bytes b) b.
Proof.
  intros Hb. unfold len_ok in Hb. rewrite sr_two64_pow in Hb.
  pose proof (reads_uv f (lenN b) Hb) as Hu. unfold put_bytes. split.
  - intros rest. unfold read_bytes. rewrite <- app_assoc. rewrite (proj1 Hu). cbn [rbind].
    rewrite lenN_app. replace (lenN b + lenN rest <? lenN b) with false by lia.
    rewrite takeN_app, dropN_app. reflexivity.
  - intros n Hn. unfold read_bytes. rewrite (reads_firstn _ _ _ _ Hu).
    destruct (Nat.leb_spec (length (put_uvarint (lenN b))) n) as [Hle|Hlt]; [|reflexivity].
    cbn [rbind]. rewrite app_length in Hn.
    assert (Hlt : lenN (firstn (n - length (put_uvarint (lenN b))) b) < lenN b) by (apply lenN_firstn_lt; lia).
    replace (lenN (firstn (n - length (put_uvarint (lenN b))) b) <? lenN b) with true by lia. reflexivity.
Qed.

(* several readers in a row: the same, but a cut is reported at the field it falls in *)
Definition reads_seq {A} (R : bytes -> rd A) (e : bytes) (v : A) : Prop :=
  (forall rest, R (e ++ rest) = ROk v rest) /\
  (forall n, (n < length e)%nat -> exists f, R (firstn n e) = RErr (ECorrupt f RShort)).

Lemma reads_one {A B} (R : bytes -> rd A) f e v (g : A -> B) :
  reads R f e v -> reads_seq (fun b => rdo x, rest <- R b; ROk (g x) rest) e (g v).
Proof.
  intros [Hw Hc]. split.
  - intros rest. rewrite Hw. reflexivity.
  - intros n Hn. exists f. rewrite (Hc n Hn). reflexivity.
Qed.

Lemma reads_then {A B} (R : bytes -> rd A) f e v (K : A -> bytes -> rd B) e' w :
  reads R f e v -> reads_seq (K v) e' w -> reads_seq (fun b => rdo x, rest <- R b; K x rest) (e ++ e') w.
Proof.
  intros Hr [Kw Kc]. split.
  - intros rest. rewrite <- app_assoc, (proj1 Hr). apply Kw.
  - intros n Hn. rewrite (reads_firstn R f e v Hr). destruct (Nat.leb_spec (length e) n) as [Hle|Hlt].
    + apply Kc. rewrite app_length in Hn. lia.
    + exists f. reflexivity.
Qed.

Lemma reads_seq_firstn {A} (R : bytes -> rd A) e v : reads_seq R e v -> forall n tail,
  ((length e <= n)%nat -> R (firstn n (e ++ tail)) = ROk v (firstn (n - length e) tail)) /\
  ((n < length e)%nat -> exists f, R (firstn n (e ++ tail)) = RErr (ECorrupt f RShort)).
Proof.
  intros [Hw Hc] n tail. split; intros H.
  - rewrite firstn_app_ge by exact H. apply Hw.
  - rewrite firstn_app_lt by exact H. apply Hc. exact H.
Qed.

Section Cut.
  Variable p : rparams.
  Hypothesis pok : rparams_ok p.

  Lemma tag_small t : In t (tags p) -> t < 128.
  Proof. intros H. destruct pok as [_ F]. rewrite Forall_forall in F. specialize (F t H). lia. Qed.

  Lemma put_uvarint_small t : t < 128 -> put_uvarint t = [t].
  Proof.
    intros H. unfold put_uvarint. cbn [put_uvarint_f]. replace (128 <=? t) with false by lia.
    rewrite N.mod_small by lia. reflexivity.
  Qed.

  Lemma read_header_small t rest : t < 128 -> read_uv_may_eof FHeader true (t :: rest) = ROk t rest.
  Proof.
    intros H. unfold read_uv_may_eof, read_uvarint. cbn [read_uvarint_f].
    replace (t <? 128) with true by lia. change (0 =? 9) with false. cbn [andb].
    rewrite N.shiftl_0_r, N.lor_0_l. reflexivity.
  Qed.

  Lemma tag_of_in it : In (tag_of p it) (tags p).
  Proof. destruct it; cbn [tag_of tags In]; tauto. Qed.

  Lemma reads_kind it : item_ok it -> reads_seq (read_kind (item_ix it)) (payload it) (Some it).
  Proof.
    intros Hok. destruct it as [name|z|z|q|z|c|d|t]; cbn [item_ix read_kind payload item_ok] in *.
    - exact (reads_one _ _ _ _ _ (reads_bytes FComparer name Hok)).
    - exact (reads_one _ _ _ _ _ (reads_varint FJournalNum z Hok)).
    - exact (reads_one _ _ _ _ _ (reads_varint FNextFileNum z Hok)).
    - rewrite sr_two64_pow in Hok. exact (reads_one _ _ _ _ _ (reads_uv FSeqNum q Hok)).
    - exact (reads_one _ _ _ _ _ (reads_varint FPrevJournalNum z Hok)).
    - destruct c as [l k], Hok as [Hl Hk]. cbn [cp_level cp_ikey] in *.
      apply (reads_then _ _ _ _ _ _ _ (reads_level FCpLevel l Hl)).
      exact (reads_one _ _ _ _ _ (reads_bytes FCpIkey k Hk)).
    - destruct d as [l m], Hok as [Hl Hm]. cbn [dt_level dt_num] in *.
      apply (reads_then _ _ _ _ _ _ _ (reads_level FDelLevel l Hl)).
      exact (reads_one _ _ _ _ _ (reads_varint FDelNum m Hm)).
    - destruct t as [l m s i a], Hok as (Hl & Hm & Hs & Hi & Ha). cbn [at_level at_num at_size at_imin at_imax] in *.
      apply (reads_then _ _ _ _ _ _ _ (reads_level FAddLevel l Hl)).
      apply (reads_then _ _ _ _ _ _ _ (reads_varint FAddNum m Hm)).
      apply (reads_then _ _ _ _ _ _ _ (reads_varint FAddSize s Hs)).
      apply (reads_then _ _ _ _ _ _ _ (reads_bytes FAddImin i Hi)).
      exact (reads_one _ _ _ _ _ (reads_bytes FAddImax a Ha)).
  Qed.

  (* decode's case for an item on the first n bytes of (payload ++ more) *)
  Lemma decode_field_cut it : item_ok it -> forall r n more,
    ((length (payload it) <= n)%nat ->
       decode_field p (tag_of p it) r (firstn n (payload it ++ more))
       = ROk (apply_item p r it) (firstn (n - length (payload it)) more)) /\
    ((n < length (payload it))%nat ->
       exists fld, decode_field p (tag_of p it) r (firstn n (payload it ++ more)) = RErr (ECorrupt fld RShort)).
  Proof.
    intros Hok r n more. rewrite decode_field_read, tag_of_nth, tag_ix_nth by (try exact pok; apply item_ix_lt).
    destruct (reads_seq_firstn _ _ _ (reads_kind it Hok) n more) as [Hw Hc]. split; intros H.
    - rewrite (Hw H). reflexivity.
    - destruct (Hc H) as [f E]. exists f. rewrite E. reflexivity.
  Qed.

  Lemma enc_item_cons it : enc_item p it = tag_of p it :: payload it.
  Proof. unfold enc_item. rewrite put_uvarint_small by (apply tag_small, tag_of_in). reflexivity. Qed.

  (* decode on the first n bytes of the encoding of ANY list of in-range items, from ANY record state: the items
     wholly before the cut are applied; a cut between two items (or no cut) is a success, a cut inside an item
     is a corrupted "short read" *)
  Theorem decode_cut its : Forall item_ok its -> forall r n,
    match cut_items p its n with
    | (a, true) => decode p r (firstn n (enc_items p its)) = DOk (apply_items p r a)
    | (a, false) => exists fld, decode p r (firstn n (enc_items p its)) = DErr (ECorrupt fld RShort) (apply_items p r a)
    end.
  Proof.
    induction 1 as [|it more Hit Hmore IH]; intros r n.
    - cbn [cut_items enc_items flat_map]. rewrite firstn_nil. apply decode_nil.
    - cbn [cut_items enc_items flat_map]. rewrite enc_item_cons. cbn [length].
      destruct n as [|n].
      + cbn [Nat.leb firstn Nat.eqb]. apply decode_nil.
      + cbn [Nat.leb firstn app Nat.sub]. rewrite decode_unfold.
        rewrite read_header_small by (apply tag_small, tag_of_in).
        destruct (decode_field_cut it Hit r n (flat_map (enc_item p) more)) as [Hw Hc].
        destruct (Nat.leb_spec (length (payload it)) n) as [Hle|Hlt].
        * rewrite (Hw Hle). specialize (IH (apply_item p r it) (n - length (payload it))%nat).
          fold (enc_items p more) in *.
          destruct (cut_items p more (n - length (payload it))) as [a c]. exact IH.
        * destruct (Hc Hlt) as [fld E]. rewrite E. cbn [Nat.eqb]. exists fld. reflexivity.
  Qed.

  Lemma cut_items_all its : forall n, (length (enc_items p its) <= n)%nat -> cut_items p its n = (its, true).
  Proof.
    induction its as [|it more IH]; intros n Hn; [reflexivity|].
    cbn [cut_items]. cbn [enc_items flat_map] in Hn. rewrite app_length in Hn.
    destruct (Nat.leb_spec (length (enc_item p it)) n); [|lia].
    rewrite IH by (unfold enc_items; lia). reflexivity.
  Qed.

  Theorem decode_items its r : Forall item_ok its -> decode p r (enc_items p its) = DOk (apply_items p r its).
  Proof.
    intros H. pose proof (decode_cut its H r (length (enc_items p its))) as D.
    rewrite cut_items_all in D by lia. rewrite firstn_all in D. exact D.
  Qed.

  Lemma put_varint_ok z : z_in63 z -> put_varint z = Some (put_uvarint (Z.to_N z)).
  Proof. intros [H0 _]. unfold put_varint. replace (z <? 0)%Z with false by lia. reflexivity. Qed.

  Lemma oconcat_app l1 : forall l2 a b, oconcat l1 = Some a -> oconcat l2 = Some b -> oconcat (l1 ++ l2) = Some (a ++ b).
  Proof.
    induction l1 as [|x l1 IH]; intros l2 a b H1 H2; cbn [oconcat app] in *.
    - injection H1 as <-. exact H2.
    - destruct x as [x|]; cbn [obind] in *; [|discriminate].
      destruct (oconcat l1) as [a'|] eqn:E; cbn [obind] in *; [|discriminate]. injection H1 as <-.
      rewrite (IH l2 a' b eq_refl H2). cbn [obind]. rewrite app_assoc. reflexivity.
  Qed.

  Lemma oconcat_map {A} (g : A -> option bytes) (h : A -> item) (l : list A) :
    (forall a, In a l -> g a = Some (enc_item p (h a))) -> oconcat (map g l) = Some (enc_items p (map h l)).
  Proof.
    induction l as [|a l IH]; intros H; [reflexivity|]. cbn [map oconcat enc_items flat_map].
    rewrite (H a (or_introl eq_refl)). cbn [obind].
    rewrite IH by (intros; apply H; right; assumption). reflexivity.
  Qed.

  Lemma enc_items_app a b : enc_items p (a ++ b) = enc_items p a ++ enc_items p b.
  Proof. unfold enc_items. apply flat_map_app. Qed.

  Theorem encode_items r : rec_ok p r -> encode p r = Some (enc_items p (items_of p r)).
  Proof.
    unfold rec_ok, items_of, encode. intros H.
    apply Forall_app in H as [H1 H]. apply Forall_app in H as [H2 H].
    apply Forall_app in H as [H3 H]. apply Forall_app in H as [H4 H].
    apply Forall_app in H as [H5 H]. apply Forall_app in H as [H6 H7].
    repeat rewrite enc_items_app.
    change (?a :: ?b :: ?c :: ?d :: ?l) with ([a] ++ [b] ++ [c] ++ [d] ++ l).
    repeat apply oconcat_app.
    - destruct (has r (tComparer p)); cbn [oconcat obind enc_items flat_map]; rewrite ?app_nil_r; reflexivity.
    - destruct (has r (tJournalNum p)); cbn [oconcat obind enc_items flat_map]; [|reflexivity].
      inversion H2; subst. rewrite put_varint_ok by assumption. cbn [obind]. rewrite !app_nil_r. reflexivity.
    - destruct (has r (tNextFileNum p)); cbn [oconcat obind enc_items flat_map]; [|reflexivity].
      inversion H3; subst. rewrite put_varint_ok by assumption. cbn [obind]. rewrite !app_nil_r. reflexivity.
    - destruct (has r (tSeqNum p)); cbn [oconcat obind enc_items flat_map]; rewrite ?app_nil_r; reflexivity.
    - apply oconcat_map. intros c _. reflexivity.
    - apply oconcat_map. intros d Hd. rewrite Forall_forall in H6.
      specialize (H6 (IDel d) (in_map IDel _ _ Hd)). destruct H6 as [_ Hn].
      unfold enc_dt. rewrite put_varint_ok by exact Hn. cbn [obind]. unfold enc_item. cbn [tag_of payload].
      reflexivity.
    - apply oconcat_map. intros t Ht. rewrite Forall_forall in H7.
      specialize (H7 (IAdd t) (in_map IAdd _ _ Ht)). destruct H7 as (_ & Hn & Hs & _).
      unfold enc_at. rewrite !put_varint_ok by assumption. cbn [obind]. unfold enc_item. cbn [tag_of payload].
      reflexivity.
  Qed.

  (* for EVERY record whose written fields are in range, whatever its bits and its unwritten fields are: encode
     does not panic, and decoding the bytes into any record state r0 applies the written fields to r0 *)
  Theorem record_roundtrip r : rec_ok p r ->
    exists b, encode p r = Some b /\ forall r0, decode p r0 b = DOk (apply_items p r0 (items_of p r)).
  Proof.
    intros H. exists (enc_items p (items_of p r)). split; [apply encode_items; exact H|].
    intros r0. apply decode_items. exact H.
  Qed.

  (* a strict prefix of a valid encoding: the fields wholly before the cut when it falls between two fields —
     a shorter record, not an error — and otherwise a corrupted "short read" with those fields stored *)
  Theorem record_prefix r b : rec_ok p r -> encode p r = Some b -> forall r0 n,
    match cut_items p (items_of p r) n with
    | (a, true) => decode p r0 (firstn n b) = DOk (apply_items p r0 a)
    | (a, false) => exists fld, decode p r0 (firstn n b) = DErr (ECorrupt fld RShort) (apply_items p r0 a)
    end.
  Proof.
    intros H E r0 n. rewrite (encode_items r H) in E. injection E as <-.
    apply decode_cut. exact H.
  Qed.
End Cut.
