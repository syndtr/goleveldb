(* Codec/TablePolicyProofs.v — policy_change_invisible at the table model: two readers of the same
   well-formed table that differ only in the filter they use (another policy, an alternative
   policy, none - i.e. in tr_filter, and possibly in dataEnd) return the same results for every
   lookup and every iterator walk, provided neither filter has a false negative on the keys of a
   data block (C16's theorems for any policy meeting the policy contract; trivially true of a
   reader without a usable filter).  The one reader-policy-dependent observable is OffsetOf for a
   key beyond the last separator: NewReader sets dataEnd to the filter block's offset only when
   the filter named in the metaindex is one of the reader's. *)
From GL Require Import Codec.Table Codec.TableProofs Codec.TableIterProofs Codec.TableEmptyProofs.

(* find / Get / the iterators never look at dataEnd *)
Definition with_end (r : treader) (de : N) : treader := mkTR (tr_index r) (tr_fetch r) (tr_filter r) de.
Lemma tfind_end c r de key f : tfind c (with_end r de) key f = tfind c r key f.
Proof. destruct r. reflexivity. Qed.
Lemma tget_end c r de key : tget c (with_end r de) key = tget c r key.
Proof. destruct r. reflexivity. Qed.
Lemma tgetf_end c r de key : tget_filtered c (with_end r de) key = tget_filtered c r key.
Proof. destruct r. reflexivity. Qed.
Lemma titer_end c r de sl strict : new_titer c (with_end r de) sl strict = new_titer c r sl strict.
Proof. destruct r. reflexivity. Qed.
(* The fuelled loops are compared as functions of their fuel: applied to [ti_fuel t], conversion
   would unroll them on both sides. *)
Lemma tnext_f_end c r de : ti_next_f c (with_end r de) = ti_next_f c r.
Proof. reflexivity. Qed.
Lemma tprev_f_end c r de : ti_prev_f c (with_end r de) = ti_prev_f c r.
Proof. reflexivity. Qed.
Lemma tstep_end c r de : ti_step c (with_end r de) = ti_step c r.
Proof.
  unfold ti_step, ti_first, ti_last, ti_seek, ti_next, ti_prev. rewrite tnext_f_end, tprev_f_end. reflexivity.
Qed.
Lemma trun_end c r de t ops : ti_run c (with_end r de) t ops = ti_run c r t ops.
Proof. unfold ti_run. rewrite tstep_end. reflexivity. Qed.

Section Policy.
  Variable c : comparer.
  Hypothesis c_ok : comparer_ok c.
  Variables rd rd' : treader.
  Variable blocks : list (list (bytes * bytes)).
  Variable seps : list bytes.
  Variable hs : list bhandle.
  Hypothesis wf : table_wf c rd blocks seps hs.
  Hypothesis same_index : tr_index rd' = tr_index rd.
  Hypothesis same_fetch : forall h, tr_fetch rd' h = tr_fetch rd h.

  (* rd' with rd's dataEnd: well-formed, and indistinguishable from rd' by find / Get / iterators *)
  Definition rd2 : treader := with_end rd' (tr_dataEnd rd).

  Lemma wf2 : table_wf c rd2 blocks seps hs.
  Proof.
    destruct wf. constructor; unfold rd2, with_end; cbn [tr_index tr_fetch tr_filter tr_dataEnd]; try assumption.
    - rewrite same_index. assumption.
    - intros j Hj. rewrite same_fetch. auto.
  Qed.

  Theorem tfind_policy key : tfind c rd' key false = tfind c rd key false.
  Proof.
    rewrite <- (tfind_end c rd' (tr_dataEnd rd)), (tfind_first_ge c c_ok rd2 blocks seps hs wf2), (tfind_first_ge c c_ok rd blocks seps hs wf).
    reflexivity.
  Qed.

  Theorem tget_policy key : tget c rd' key = tget c rd key.
  Proof. unfold tget. rewrite tfind_policy. reflexivity. Qed.

  Theorem tget_filtered_policy key :
    filter_sound rd blocks hs -> filter_sound rd' blocks hs ->
    tget_filtered c rd' key = tget_filtered c rd key.
  Proof.
    intros H1 H2. rewrite <- (tgetf_end c rd' (tr_dataEnd rd)). fold rd2.
    rewrite (tget_filter_independent c c_ok rd2 blocks seps hs wf2 key H2).
    rewrite (tget_filter_independent c c_ok rd blocks seps hs wf key H1).
    unfold rd2. rewrite tget_end. apply tget_policy.
  Qed.

  Theorem titer_policy sl strict :
    exists t t', new_titer c rd sl strict = inr t /\ new_titer c rd' sl strict = inr t' /\
      forall ops, fst (ti_run c rd' t' ops) = fst (ti_run c rd t ops).
  Proof.
    destruct sl as [[start limit]|].
    - destruct (table_iter_range_refines c rd blocks seps hs start limit strict c_ok wf) as (t & Et & Ht).
      destruct (table_iter_range_refines c rd2 blocks seps hs start limit strict c_ok wf2) as (t' & Et' & Ht').
      exists t, t'. split; [exact Et|]. split; [rewrite <- (titer_end c rd' (tr_dataEnd rd)); exact Et'|].
      intros ops. rewrite <- (trun_end c rd' (tr_dataEnd rd)), Ht, Ht'. reflexivity.
    - destruct (table_iter_refines c rd blocks seps hs strict c_ok wf) as (t & Et & Ht).
      destruct (table_iter_refines c rd2 blocks seps hs strict c_ok wf2) as (t' & Et' & Ht').
      exists t, t'. split; [exact Et|]. split; [rewrite <- (titer_end c rd' (tr_dataEnd rd)); exact Et'|].
      intros ops. rewrite <- (trun_end c rd' (tr_dataEnd rd)), Ht, Ht'. reflexivity.
  Qed.

  Theorem toffset_policy key : tr_dataEnd rd' = tr_dataEnd rd -> toffset_of c rd' key = toffset_of c rd key.
  Proof. intros H. unfold toffset_of. rewrite same_index, H. reflexivity. Qed.
End Policy.

(* a reader without a usable filter: nothing to be sound about *)
Lemma filter_sound_none rd blocks hs : tr_filter rd = None -> filter_sound rd blocks hs.
Proof. intros H contains E. rewrite H in E. discriminate. Qed.

Theorem policy_change_invisible c rd rd' blocks seps hs :
  comparer_ok c -> table_wf c rd blocks seps hs ->
  tr_index rd' = tr_index rd -> (forall h, tr_fetch rd' h = tr_fetch rd h) ->
  filter_sound rd blocks hs -> filter_sound rd' blocks hs ->
  (forall key, tget_filtered c rd' key = tget_filtered c rd key) /\
  (forall key, tget c rd' key = tget c rd key) /\
  (forall key, tfind c rd' key false = tfind c rd key false) /\
  (forall sl strict, exists t t',
     new_titer c rd sl strict = inr t /\ new_titer c rd' sl strict = inr t' /\
     forall ops, fst (ti_run c rd' t' ops) = fst (ti_run c rd t ops)) /\
  (tr_dataEnd rd' = tr_dataEnd rd -> forall key, toffset_of c rd' key = toffset_of c rd key).
Proof.
  intros Hc wf Hi Hf S1 S2.
  split; [intros key; apply (tget_filtered_policy c Hc rd rd' blocks seps hs wf Hi Hf key S1 S2)|].
  split; [intros key; apply (tget_policy c Hc rd rd' blocks seps hs wf Hi Hf)|].
  split; [intros key; apply (tfind_policy c Hc rd rd' blocks seps hs wf Hi Hf)|].
  split; [intros sl strict; apply (titer_policy c Hc rd rd' blocks seps hs wf Hi Hf)|].
  intros E key. apply (toffset_policy c rd rd' Hi key E).
Qed.

(* the byte level: NewReader on the same file with any reader policy (name or none, any contains
   function) gives readers with the same index block and the same block fetches *)
Theorem open_table_policy_indep tp crc decompress fc1 fc2 c file fn1 fn2 verify :
  tr_index (open_table tp crc decompress fc2 c file fn2 verify) = tr_index (open_table tp crc decompress fc1 c file fn1 verify) /\
  forall h, tr_fetch (open_table tp crc decompress fc2 c file fn2 verify) h = tr_fetch (open_table tp crc decompress fc1 c file fn1 verify) h.
Proof.
  unfold open_table.
  destruct (lenN file <? tp_footerLen tp); [split; reflexivity|].
  destruct (negb _); [split; reflexivity|].
  destruct (decode_bh _) as [metaBH n| |]; try (split; reflexivity).
  destruct (decode_bh _) as [indexBH n'| |]; try (split; reflexivity).
  destruct (read_block_at tp crc decompress file metaBH true); split; reflexivity.
Qed.
