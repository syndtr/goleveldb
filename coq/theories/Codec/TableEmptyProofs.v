(* Codec/TableEmptyProofs.v — range iteration on the EMPTY table.
   The data block of an empty table has no entry (restartsOffset = 0).  On such a block NO call of
   the block iterator, sliced or not, in whatever state, ever returns an entry: block.entry sees
   offset >= restartsOffset and reports "end" or "entries offset not aligned".  Hence every
   movement sequence on NewIterator(range) over a well-formed empty table observes nothing, which
   is what the reference cursor over the empty list observes — although the iterator may REPORT a
   corruption error on the way (Props/C13.v: C13_range_iter_empty_table_reports_corruption).
   With TableSliceProofs.table_iter_sliced_refines (non-empty tables) this gives the range
   refinement for every well-formed table. *)
From GL Require Import Codec.BlockEnc Codec.BlockProofs Codec.BlockSliceProofs Codec.Table Codec.TableProofs
  Codec.IndexedIterProofs Codec.TableSliceProofs.
From GL Require Codec.TableDamageProofs.
From Coq Require Import Lia.

(* the static part: the block has no entries and the iterator's window is [0, 0) *)
Definition estat (it : biter) : Prop :=
  b_roff (bi_blk it) = 0 /\ bi_offLimit it = 0 /\ bi_offRealStart it = 0.
(* ... and the iterator is parked at an end or carries an error *)
Definition eblk (it : biter) : Prop :=
  estat it /\ (bi_dir it = DSOI \/ bi_dir it = DEOI \/ bi_err it <> None).

Lemma entry_empty b o : b_roff b = 0 -> block_entry b o = EntEnd \/ block_entry b o = EntErr.
Proof.
  intros H. unfold block_entry. rewrite H. replace (0 <=? o) with true by lia.
  destruct (o =? 0); auto.
Qed.

Lemma read_empty b pk o : b_roff b = 0 -> bi_read b pk o = RdEnd \/ bi_read b pk o = RdErr ErrCorrupt.
Proof. intros H. unfold bi_read. destruct (entry_empty b o H) as [-> | ->]; auto. Qed.

Lemma estat_serr it e : estat it -> eblk (bi_serr it e).
Proof. intros H. split; [exact H|]. right. right. cbn. discriminate. Qed.
Lemma estat_dir it d : estat it -> estat (bi_with_dir it d).
Proof. intros H. exact H. Qed.
Lemma estat_eoi it : estat it -> eblk (bi_with_dir it DEOI).
Proof. intros H. split; [exact H|]. right. left. reflexivity. Qed.
Lemma estat_soi it : estat it -> eblk (bi_with_dir it DSOI).
Proof. intros H. split; [exact H|]. left. reflexivity. Qed.
Lemma estat_pos it k v o po ri d : estat it -> estat (bi_with_pos it k v o po ri d).
Proof. intros H. exact H. Qed.
Lemma estat_err it : estat it -> bi_has_err it = true -> eblk it.
Proof.
  intros H He. split; [exact H|]. right. right. unfold bi_has_err in He.
  destruct (bi_err it); [discriminate|discriminate].
Qed.

Lemma skip_empty fuel : forall it, estat it ->
  match bi_skip fuel it with inl it' => it' = it | inr it' => eblk it' end.
Proof.
  induction fuel as [|f IH]; intros it H; cbn [bi_skip].
  - destruct (bi_offset it <? bi_offRealStart it); [apply estat_serr; exact H|reflexivity].
  - destruct (bi_offset it <? bi_offRealStart it); [|reflexivity].
    destruct H as (Hb & Hr). destruct (read_empty (bi_blk it) (bi_key it) (bi_offset it) Hb) as [-> | ->].
    + apply estat_eoi. split; assumption.
    + apply estat_serr. split; assumption.
Qed.

Lemma next_empty it : estat it -> fst (bi_next it) = false /\ eblk (snd (bi_next it)).
Proof.
  intros H. unfold bi_next.
  destruct (bdir_eqb (bi_dir it) DEOI) eqn:Ed.
  { cbn [orb fst snd]. split; [reflexivity|]. split; [exact H|]. right. left.
    destruct (bi_dir it); try discriminate. reflexivity. }
  cbn [orb]. destruct (bi_has_err it) eqn:Ee.
  { cbn [fst snd]. split; [reflexivity|apply estat_err; assumption]. }
  set (it1 := if bdir_eqb (bi_dir it) DSOI then _ else it).
  assert (H1 : estat it1) by (unfold it1; destruct (bdir_eqb (bi_dir it) DSOI); exact H).
  pose proof (skip_empty (bi_fuel it1) it1 H1) as Hs.
  destruct (bi_skip (bi_fuel it1) it1) as [it2|it2].
  - subst it2. destruct H1 as (Hb & Hl & Hr). rewrite Hl.
    replace (0 <=? bi_offset it1) with true by lia. cbn [fst snd]. split; [reflexivity|].
    destruct (bi_offset it1 =? 0).
    + apply estat_eoi. repeat split; assumption.
    + apply estat_serr. repeat split; assumption.
  - cbn [fst snd]. split; [reflexivity|exact Hs].
Qed.

Lemma seek_loop_empty c key fuel : forall it, estat it ->
  fst (bi_seek_loop fuel c key it) = false /\ eblk (snd (bi_seek_loop fuel c key it)).
Proof.
  destruct fuel as [|f]; intros it H; cbn [bi_seek_loop].
  - cbn [fst snd]. split; [reflexivity|apply estat_serr; exact H].
  - destruct (next_empty it H) as (E1 & E2). destruct (bi_next it) as (ok, it'). cbn [fst snd] in E1, E2.
    subst ok. cbn [fst snd]. split; [reflexivity|exact E2].
Qed.

Lemma seek_empty c it key : estat it -> fst (bi_seek c it key) = false /\ eblk (snd (bi_seek c it key)).
Proof.
  intros H. unfold bi_seek. destruct (bi_has_err it) eqn:Ee.
  { cbn [fst snd]. split; [reflexivity|apply estat_err; assumption]. }
  destruct (block_seek c (bi_blk it) (bi_riStart it) (bi_riLimit it) key) as [[ri off]|].
  - apply seek_loop_empty. exact H.
  - cbn [fst snd]. split; [reflexivity|apply estat_serr; exact H].
Qed.

Lemma first_empty it : estat it -> fst (bi_first it) = false /\ eblk (snd (bi_first it)).
Proof.
  intros H. unfold bi_first. destruct (bi_has_err it) eqn:Ee.
  { cbn [fst snd]. split; [reflexivity|apply estat_err; assumption]. }
  apply next_empty. exact H.
Qed.

Lemma prev_empty it : eblk it -> fst (bi_prev it) = false /\ eblk (snd (bi_prev it)).
Proof.
  intros (H & Hd). unfold bi_prev.
  destruct (bdir_eqb (bi_dir it) DSOI) eqn:Es.
  { cbn [orb fst snd]. split; [reflexivity|]. split; [exact H|]. left. destruct (bi_dir it); try discriminate. reflexivity. }
  cbn [orb]. destruct (bi_has_err it) eqn:Ee.
  { cbn [fst snd]. split; [reflexivity|apply estat_err; assumption]. }
  destruct Hd as [Hd|[Hd|Hd]].
  - rewrite Hd in Es. discriminate.
  - rewrite Hd. destruct H as (Hb & Hl & Hr). rewrite Hl, Hr. cbn [N.eqb fst snd].
    split; [reflexivity|]. apply estat_soi. repeat split; assumption.
  - unfold bi_has_err in Ee. destruct (bi_err it); [discriminate|congruence].
Qed.

Lemma last_empty it : estat it -> fst (bi_last it) = false /\ eblk (snd (bi_last it)).
Proof.
  intros H. unfold bi_last. destruct (bi_has_err it) eqn:Ee.
  { cbn [fst snd]. split; [reflexivity|apply estat_err; assumption]. }
  apply prev_empty. apply estat_eoi. exact H.
Qed.

Lemma step_empty c it o : eblk it -> fst (bi_step c it o) = false /\ eblk (snd (bi_step c it o)).
Proof.
  intros H. pose proof H as (Hs & _).
  destruct o; cbn [bi_step];
    [apply first_empty | apply last_empty | apply seek_empty | apply next_empty | apply prev_empty]; assumption.
Qed.

Lemma get_empty it : eblk it -> bi_get it = None.
Proof.
  intros (_ & Hd). unfold bi_get, bi_valid, bi_has_err. destruct Hd as [-> | [-> | Hd]]; cbn.
  - now rewrite andb_false_r.
  - now rewrite andb_false_r.
  - destruct (bi_err it); [reflexivity|congruence].
Qed.

(* newBlockIter(b, slice, inclLimit) on a block without entries *)
Lemma new_iter_empty c b sl incl : b_roff b = 0 -> eblk (new_block_iter c b sl incl).
Proof.
  intros Hb.
  assert (H0 : eblk (bi_unsliced b)).
  { split; [|left; reflexivity]. unfold estat, bi_unsliced. cbn. auto. }
  unfold new_block_iter. destruct sl as [[start limit]|]; [|exact H0]. cbv zeta.
  set (bi1 := match start with None => bi_unsliced b | Some s => _ end).
  assert (H1 : eblk bi1).
  { unfold bi1. destruct start as [s|]; [|exact H0].
    destruct (seek_empty c (bi_unsliced b) s (proj1 H0)) as (E1 & E2).
    destruct (bi_seek c (bi_unsliced b) s) as (ok, bi'). cbn [fst snd] in E1, E2. subst ok.
    destruct E2 as ((B1 & B2 & B3) & Bd). split; [|exact Bd].
    unfold estat, bi_with_start. cbn. auto. }
  set (bi2 := match limit with None => bi1 | Some l => _ end).
  assert (H2 : eblk bi2).
  { unfold bi2. destruct limit as [l|]; [|exact H1].
    destruct (seek_empty c bi1 l (proj1 H1)) as (E1 & E2).
    destruct (bi_seek c bi1 l) as (ok, bi'). cbn [fst snd] in E1, E2. subst ok. exact E2. }
  assert (H3 : eblk (bi_reset bi2)).
  { split; [exact (proj1 H2)|left; reflexivity]. }
  destruct (bi_offLimit (bi_reset bi2) <? bi_offStart (bi_reset bi2)); [|exact H3].
  apply estat_serr. exact (proj1 H3).
Qed.

Lemma c_run_nil {V} c : forall ops p, @c_run V c [] p ops = map (fun _ => None) ops.
Proof.
  induction ops as [|o ops IH]; intros p; [reflexivity|]. cbn [c_run map]. rewrite IH. f_equal.
  destruct (c_step c [] p o) as [|i|]; cbn; try reflexivity. destruct i; reflexivity.
Qed.

Section EmptyTable.
  Variable c : comparer.
  Hypothesis c_ok : comparer_ok c.
  Variable rd : treader.
  Variable seps : list bytes.
  Variable hs : list bhandle.
  Hypothesis wf : table_wf c rd [[]] seps hs.
  Variable start limit : option bytes.

  Local Notation ient := (ientries seps hs).
  Local Notation sl := (Some (start, limit)).

  Variable ib : block.
  Variable ioff : nat -> N.
  Variable iris : list nat.
  Hypothesis ilay : block_layout ient ib ioff iris.
  Variables ja jz irs irl : nat.
  Hypothesis ivok : view_ok ient iris ja jz irs irl.

  Local Notation RI := (rep_s ient ib ioff iris ja jz irs irl).
  Local Notation IL := (view ient ja jz).

  Lemma ient_one : length ient = 1%nat.
  Proof. rewrite (ient_len c rd [[]] seps hs wf). reflexivity. Qed.

  Lemma RO : refines_over c IL RI.
  Proof.
    apply sliced_refines; [exact c_ok | exact ilay | exact (ient_sorted c c_ok rd [[]] seps hs wf) | rewrite ient_one; lia | exact ivok].
  Qed.

  Definition Dok (d : option diter) : Prop :=
    match d with
    | None => True
    | Some (DEmpty _) => True
    | Some (DBlock it) => eblk it
    end.

  Definition T (t : titer) : Prop :=
    ti_slice t = sl /\ (exists ip, RI (ti_index t) ip) /\ Dok (ti_data t).

  Lemma T_get t : T t -> ti_get t = None.
  Proof.
    intros (_ & _ & Hd). unfold ti_get. destruct (ti_data t) as [[it|e]|]; cbn [d_get]; try reflexivity.
    apply get_empty. exact Hd.
  Qed.

  (* indexIter.Get at a valid index position opens an iterator on a block without entries *)
  Lemma index_get_ok t i : RI (ti_index t) (CAt i) -> Dok (index_get c rd t).
  Proof.
    intros R. destruct (ro_get _ _ _ RO _ _ R) as (Hv & Hn).
    unfold index_get. rewrite Hv. cbn [negb].
    assert (Hpos : (0 < length ient)%nat) by (rewrite ient_one; lia).
    assert (Hi : (i < jz - ja)%nat).
    { rewrite <- (view_len ient iris Hpos ja jz irs irl ivok). apply nth_error_Some. rewrite Hn. discriminate. }
    pose proof (vo_z _ _ _ _ _ _ ivok) as Hz. rewrite ient_one in Hz.
    assert (Hj : (ja + i < 1)%nat) by lia.
    rewrite (view_nth ient ja jz i Hi), (nth_kv ient (ja + i)) in Hn by (rewrite ient_one; exact Hj).
    injection Hn as Hk Hval. rewrite <- Hval.
    rewrite (ient_val c rd [[]] seps hs wf (ja + i) Hj).
    destruct (twf_handles _ _ _ _ _ wf (ja + i) Hj) as [Ho1 Hl1]. rewrite (decode_encode_bh _ Ho1 Hl1).
    destruct (twf_fetch _ _ _ _ _ wf (ja + i) Hj) as (bj & Ef & (off & ris & lay)). rewrite Ef.
    cbn [Dok]. apply new_iter_empty.
    assert (El : nth (ja + i) [[]] [] = (@nil (bytes * bytes))) by (destruct (ja + i)%nat as [|[|n]]; reflexivity).
    rewrite El in lay. rewrite <- (lay_end _ _ _ _ lay). exact (lay_off0 _ _ _ _ lay).
  Qed.

  Lemma step_T t o : T t -> T (snd (ti_step c rd t o)).
  Proof.
    intros (H1 & H2 & H3).
    assert (H : TableDamageProofs.tinv (fun ix => exists ip, RI ix ip) Dok t (snd (ti_step c rd t o))).
    { apply (TableDamageProofs.ti_step_inv c rd).
      - intros ix o' (ip & R). destruct (ro_step _ _ _ RO _ _ o' R) as (ok & ix' & E & R' & _).
        rewrite E. exists (c_step c IL ip o'). exact R'.
      - exact I.
      - intros [it|e] o' Hd; cbn [d_lift]; [|exact I].
        pose proof (proj2 (step_empty c it o' Hd)) as Hs. destruct (bi_step c it o') as [ok it']. exact Hs.
      - intros t1 ix o' (ip & R) E. destruct (ro_step _ _ _ RO _ _ o' R) as (ok & ix' & E' & R' & Eok).
        rewrite E in E'. injection E' as <- <-.
        destruct (c_step c IL ip o') as [|i|]; try discriminate. exact (index_get_ok t1 i R').
      - repeat split; assumption. }
    destruct H as (Hx & Hd & _ & Hl). split; [rewrite Hl; exact H1|]. split; assumption.
  Qed.

  Lemma run_T : forall ops t, T t -> fst (ti_run c rd t ops) = map (fun _ => None) ops.
  Proof.
    induction ops as [|o ops IH]; intros t H; [reflexivity|]. cbn [ti_run map].
    pose proof (step_T t o H) as H'. destruct (ti_step c rd t o) as (ok, t'). cbn [snd] in H'.
    specialize (IH t' H'). destruct (ti_run c rd t' ops) as (l, tf). cbn [fst] in *.
    rewrite IH, (T_get t' H'). destruct ok; reflexivity.
  Qed.
End EmptyTable.

Lemma tkvs_nil_blocks c rd blocks seps hs :
  table_wf c rd blocks seps hs -> tkvs blocks = [] -> blocks = [[]].
Proof.
  intros wf E. destruct (twf_blocks_ne _ _ _ _ _ wf) as [H|H]; [|exact H]. exfalso.
  pose proof (twf_m _ _ _ _ _ wf) as Hm. destruct blocks as [|b0 r]; [cbn in Hm; lia|].
  specialize (H 0%nat ltac:(cbn; lia)). cbn in H. unfold tkvs in E. cbn in E.
  apply app_eq_nil in E as (E & _). contradiction.
Qed.

(* NewIterator(&util.Range{start, limit}, ro) on an EMPTY well-formed table observes nothing *)
Theorem table_iter_sliced_empty c rd blocks seps hs start limit strict :
  comparer_ok c -> table_wf c rd blocks seps hs -> tkvs blocks = [] ->
  exists t, new_titer c rd (Some (start, limit)) strict = inr t /\
    forall ops, fst (ti_run c rd t ops) = map (fun _ => None) ops.
Proof.
  intros Hc wf Hnil. pose proof (tkvs_nil_blocks _ _ _ _ _ wf Hnil) as Eb. subst blocks.
  destruct (twf_index _ _ _ _ _ wf) as (ib & Eib & (ioff & iris & ilay)).
  unfold new_titer. rewrite Eib. eexists. split; [reflexivity|].
  assert (Hpos : (0 < length (ientries seps hs))%nat) by (rewrite (ient_one c rd seps hs wf); lia).
  destruct (new_block_iter_sliced c Hc (ientries seps hs) ib ioff iris ilay (ient_sorted c Hc rd [[]] seps hs wf) Hpos start limit true)
    as (ja & jz & irs & irl & ivok & R0 & _ & _).
  intros ops. apply (run_T c Hc rd seps hs wf start limit ib ioff iris ilay ja jz irs irl ivok).
  split; [reflexivity|]. split; [exists CSOI; exact R0|exact I].
Qed.

(* the range refinement for EVERY well-formed table *)
Theorem table_iter_range_refines c rd blocks seps hs start limit strict :
  comparer_ok c -> table_wf c rd blocks seps hs ->
  exists t, new_titer c rd (Some (start, limit)) strict = inr t /\
    forall ops, fst (ti_run c rd t ops) = c_run c (restrict c start limit (tkvs blocks)) CSOI ops.
Proof.
  intros Hc wf. destruct (tkvs blocks) as [|x l] eqn:E.
  - destruct (table_iter_sliced_empty c rd blocks seps hs start limit strict Hc wf E) as (t & Et & Hr).
    exists t. split; [exact Et|]. intros ops. rewrite Hr. cbn [restrict filter]. symmetry. apply c_run_nil.
  - rewrite <- E. apply (table_iter_sliced_refines c rd blocks seps hs start limit strict Hc wf). rewrite E. discriminate.
Qed.
