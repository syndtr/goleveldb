(* Codec/TableProofs.v — Stage B: the table reader over an abstract block store.
   [table_wf] says what a well-formed table is (index block maps separators to handles, every
   handle fetches a block holding that block's pairs, separators satisfy last <= sep < next first);
   find / Get / OffsetOf / filter independence are proved from it.  The iterator is in
   TableIterProofs.v; that the writer produces a [table_wf] table is in TableWriteProofs.v. *)
From GL Require Import Base.VarintProofs Base.OrderProofs Base.CursorProofs Codec.BlockEnc Codec.BlockProofs
  Codec.Table.
From GL Require Mem.ListLemmas.
From GL Require Export Codec.CursorFacts.
From Coq Require Import ZArith Lia.

Local Open Scope N_scope.

Lemma decode_encode_bh h : bh_off h < 2 ^ 64 -> bh_len h < 2 ^ 64 ->
  decode_bh (encode_bh h) = BhOk h (lenN (encode_bh h)).
Proof.
  intros H1 H2. unfold decode_bh, encode_bh.
  rewrite uvarint_put by exact H1. rewrite dropN_app.
  rewrite <- (app_nil_r (put_uvarint (bh_len h))) at 1. rewrite uvarint_put by exact H2.
  destruct h as [o l]; cbn [bh_off bh_len]. rewrite lenN_app. reflexivity.
Qed.

Definition good_block (blk : block) (kvs : list (bytes * bytes)) : Prop :=
  exists off ris, block_layout kvs blk off ris.

Definition bh0 : bhandle := mkBH 0 0.

Lemma in_concat_firstn {A} (ls : list (list A)) j x :
  In x (concat (firstn j ls)) -> exists j', (j' < j)%nat /\ (j' < length ls)%nat /\ In x (nth j' ls []).
Proof.
  revert j. induction ls as [|l ls IH]; intros j H.
  - rewrite firstn_nil in H. destruct H.
  - destruct j as [|j]; [destruct H|]. cbn [firstn concat] in H. apply in_app_or in H as [H|H].
    + exists 0%nat. cbn [nth length]. repeat split; try lia. exact H.
    + destruct (IH j H) as (j' & H1 & H2 & H3). exists (S j'). cbn [nth length]. repeat split; try lia. exact H3.
Qed.

Lemma in_concat_nth {A} (ls : list (list A)) x :
  In x (concat ls) -> exists j, (j < length ls)%nat /\ In x (nth j ls []).
Proof.
  intros H. rewrite <- (firstn_all ls) in H. apply in_concat_firstn in H as (j & _ & H2 & H3). eauto.
Qed.

Lemma in_nth_concat {A} (ls : list (list A)) j x : (j < length ls)%nat -> In x (nth j ls []) -> In x (concat ls).
Proof.
  intros Hj H. apply in_concat. exists (nth j ls []). split; [apply nth_In; exact Hj | exact H].
Qed.

Lemma concat_split {A} (ls : list (list A)) j : (j < length ls)%nat ->
  concat ls = concat (firstn j ls) ++ nth j ls [] ++ concat (skipn (S j) ls).
Proof.
  intros H. rewrite (ListLemmas.split_nth ls j [] H) at 1. rewrite concat_app. cbn [concat]. reflexivity.
Qed.

(* the first pair whose key is >= key, as a split of the list *)
Definition first_ge_at {V} (c : comparer) (key : bytes) (l : list (bytes * V)) (kv : bytes * V) : Prop :=
  exists pre post, l = pre ++ kv :: post /\ (forall x, In x pre -> cmp c (fst x) key = Lt) /\ cmp c (fst kv) key <> Lt.
Definition none_ge {V} (c : comparer) (key : bytes) (l : list (bytes * V)) : Prop :=
  forall x, In x l -> cmp c (fst x) key = Lt.

Lemma first_ge_at_fn {V} c key (l : list (bytes * V)) kv :
  first_ge_at c key l kv -> exists i, first_ge c key l 0 = Some i /\ nth_error l i = Some kv.
Proof.
  intros (pre & post & -> & Hpre & Hkv). exists (length pre).
  split; [apply first_ge_split; assumption|].
  rewrite nth_error_app2, Nat.sub_diag by apply Nat.le_refl. reflexivity.
Qed.

Lemma none_ge_fn {V} c key (l : list (bytes * V)) : none_ge c key l -> first_ge c key l 0 = None.
Proof.
  intros H. apply first_ge_none_intro. intros j k' v' Hn. apply (H (k', v')). eapply nth_error_In; eauto.
Qed.

Lemma c_seek_eoi {V} c key (l : list (bytes * V)) : c_seek c l key = CEOI -> none_ge c key l.
Proof. intros E x Hin. apply In_nth_error in Hin as (j & Hj). exact (c_seek_eoi_nth c key l E j x Hj). Qed.

Section TableWf.
  Variable c : comparer.
  Hypothesis c_ok : comparer_ok c.
  Variable rd : treader.
  Variable blocks : list (list (bytes * bytes)).
  Variable seps : list bytes.
  Variable hs : list bhandle.

  Definition ientries : list (bytes * bytes) := combine seps (map encode_bh hs).
  Definition tkvs : list (bytes * bytes) := concat blocks.
  Local Notation m := (length blocks).
  Local Notation blk j := (nth j blocks []).
  Local Notation sepj j := (nth j seps []).
  Local Notation hj j := (nth j hs bh0).

  (* [twf_m], [twf_blocks_ne]: a table has at least one data block and none of them is empty,
     except that the table without pairs is one empty block (Writer.Close finishes the data
     block when nothing was ever appended, [tw_close]). *)
  Record table_wf : Prop := {
    twf_len_s : length seps = m;
    twf_len_h : length hs = m;
    twf_m : (0 < m)%nat;
    twf_index : exists ib, tr_index rd = Ok ib /\ good_block ib ientries;
    twf_fetch : forall j, (j < m)%nat -> exists b, tr_fetch rd (hj j) = Ok b /\ good_block b (blk j);
    twf_handles : forall j, (j < m)%nat -> bh_off (hj j) < 2 ^ 64 /\ bh_len (hj j) < 2 ^ 64;
    twf_sorted : sorted c tkvs;
    twf_blocks_ne : (forall j, (j < m)%nat -> blk j <> []) \/ blocks = [[]];
    (* the separator law: last key of block j <= sep j < first key of block j+1 *)
    twf_sep_ge : forall j x, (j < m)%nat -> In x (blk j) -> cmp c (fst x) (sepj j) <> Gt;
    twf_sep_lt : forall j x, (S j < m)%nat -> In x (blk (S j)) -> cmp c (sepj j) (fst x) = Lt;
    twf_off_mono : forall i j, (i <= j)%nat -> (j < m)%nat -> bh_off (hj i) <= bh_off (hj j);
    twf_data_end : forall j, (j < m)%nat -> bh_off (hj j) <= tr_dataEnd rd
  }.

  Hypothesis wf : table_wf.

  Lemma ient_len : length ientries = m.
  Proof.
    unfold ientries. rewrite combine_length, map_length, (twf_len_s wf), (twf_len_h wf). apply Nat.min_id.
  Qed.

  Lemma ient_nth j : (j < m)%nat -> nth_error ientries j = Some (sepj j, encode_bh (hj j)).
  Proof.
    intros Hj. rewrite (nth_error_nth' ientries ([], encode_bh bh0)) by (rewrite ient_len; exact Hj).
    unfold ientries.
    assert (EL : length seps = length (map encode_bh hs)) by (rewrite map_length, (twf_len_s wf), (twf_len_h wf); reflexivity).
    rewrite (combine_nth _ _ _ _ _ EL).
    rewrite map_nth. reflexivity.
  Qed.

  Lemma ient_key j : (j < m)%nat -> key_at ientries j = sepj j.
  Proof.
    intros Hj. pose proof (nth_kv ientries j ltac:(rewrite ient_len; exact Hj)) as E.
    rewrite (ient_nth j Hj) in E. congruence.
  Qed.

  Lemma ient_val j : (j < m)%nat -> val_at ientries j = encode_bh (hj j).
  Proof.
    intros Hj. pose proof (nth_kv ientries j ltac:(rewrite ient_len; exact Hj)) as E.
    rewrite (ient_nth j Hj) in E. congruence.
  Qed.

  Lemma blk_ne j : (1 < m)%nat -> (j < m)%nat -> blk j <> [].
  Proof.
    intros H1 Hj. destruct (twf_blocks_ne wf) as [H|H]; [apply H; exact Hj|].
    rewrite H in H1. cbn in H1. lia.
  Qed.

  Lemma seps_incr j : (S j < m)%nat -> cmp c (sepj j) (sepj (S j)) = Lt.
  Proof.
    intros Hj. pose proof (blk_ne (S j) ltac:(lia) Hj) as Hne.
    destruct (blk (S j)) as [|x r] eqn:E; [congruence|].
    pose proof (twf_sep_lt wf j x Hj ltac:(rewrite E; left; reflexivity)) as H1.
    pose proof (twf_sep_ge wf (S j) x Hj ltac:(rewrite E; left; reflexivity)) as H2.
    apply (OrderProofs.lt_le_trans c c_ok _ (fst x)); assumption.
  Qed.

  Lemma ient_sorted : sorted c ientries.
  Proof.
    apply sorted_nth_intro. intros i ki vi kj vj H1 H2.
    assert (Hi : (S i < m)%nat) by (rewrite <- ient_len; apply nth_error_Some; congruence).
    rewrite ient_nth in H1, H2 by lia. injection H1 as <- _. injection H2 as <- _.
    apply seps_incr. exact Hi.
  Qed.

  Lemma sep_mono i j : (i <= j)%nat -> (j < m)%nat -> cmp c (sepj i) (sepj j) <> Gt.
  Proof.
    intros Hij Hj. induction j as [|j IH].
    - assert (i = 0%nat) by lia. subst. apply (OrderProofs.le_refl c c_ok).
    - destruct (Nat.eq_dec i (S j)) as [->|]; [apply (OrderProofs.le_refl c c_ok)|].
      apply (OrderProofs.le_trans c c_ok _ (sepj j)); [apply IH; lia|].
      apply (OrderProofs.lt_le c). apply seps_incr. exact Hj.
  Qed.

  (* keys of blocks before j are below any key above sep (j-1) *)
  Lemma before_block_lt j key x j' :
    (j' < j)%nat -> (j < m)%nat -> In x (blk j') -> cmp c (sepj (j - 1)) key = Lt ->
    cmp c (fst x) key = Lt.
  Proof.
    intros Hj' Hj Hin Hs.
    pose proof (twf_sep_ge wf j' x ltac:(lia) Hin) as H1.
    pose proof (sep_mono j' (j - 1) ltac:(lia) ltac:(lia)) as H2.
    apply (OrderProofs.le_lt_trans c c_ok _ (sepj (j - 1))); [|exact Hs].
    apply (OrderProofs.le_trans c c_ok _ (sepj j')); assumption.
  Qed.

  Lemma after_block_gt j key x j' :
    (j < j')%nat -> (j' < m)%nat -> In x (blk j') -> cmp c (sepj j) key <> Lt ->
    cmp c (fst x) key <> Lt.
  Proof.
    intros Hj Hj' Hin Hs.
    pose proof (twf_sep_lt wf (j' - 1) x ltac:(lia)) as H1.
    replace (S (j' - 1)) with j' in H1 by lia. specialize (H1 Hin).
    pose proof (sep_mono j (j' - 1) ltac:(lia) ltac:(lia)) as H2.
    assert (L : cmp c key (fst x) = Lt).
    { apply (OrderProofs.le_lt_trans c c_ok _ (sepj (j' - 1))); [|exact H1].
      apply (OrderProofs.le_trans c c_ok _ (sepj j)); [|exact H2].
      apply (OrderProofs.not_lt_le c c_ok). exact Hs. }
    apply (cmp_lt_gt c c_ok) in L. congruence.
  Qed.

  (* where the index seek for [key] lands: block j with sep (j-1) < key <= sep j, or past the end *)
  Definition routes_to (key : bytes) (j : nat) : Prop :=
    (j < m)%nat /\ cmp c (sepj j) key <> Lt /\ ((0 < j)%nat -> cmp c (sepj (j - 1)) key = Lt).

  Lemma index_seek_at key j : c_seek c ientries key = CAt j -> routes_to key j.
  Proof.
    intros H. apply c_seek_at in H as (kv & Hn & Hge & Hlt).
    assert (Hj : (j < m)%nat) by (rewrite <- ient_len; apply nth_error_Some; congruence).
    rewrite (ient_nth j Hj) in Hn. injection Hn as <-. cbn [fst] in Hge.
    split; [exact Hj|]. split; [exact Hge|]. intros Hpos.
    apply (Hlt (j - 1)%nat (sepj (j - 1), encode_bh (hj (j - 1)))); [lia | apply ient_nth; lia].
  Qed.

  Lemma index_seek_eoi key : c_seek c ientries key = CEOI -> none_ge c key tkvs.
  Proof.
    intros H. apply c_seek_eoi in H. intros x Hin.
    apply in_concat_nth in Hin as (j & Hj & Hin).
    pose proof (twf_sep_ge wf j x Hj Hin) as H1.
    apply (OrderProofs.le_lt_trans c c_ok _ (sepj j)); [exact H1|].
    apply (H (sepj j, encode_bh (hj j))). eapply nth_error_In. apply ient_nth. exact Hj.
  Qed.

  (* the block the index seek selects is the only one that can hold the key *)
  Lemma routes_only key j j' x : routes_to key j -> (j' < m)%nat -> In x (blk j') -> fst x = key -> j' = j.
  Proof.
    intros (Hj & Hge & Hlt) Hj' Hin Ek.
    destruct (Nat.lt_trichotomy j' j) as [L|[L|L]]; [|exact L|].
    - pose proof (before_block_lt j key x j' L Hj Hin (Hlt ltac:(lia))) as H. rewrite Ek, (cmp_refl c c_ok) in H. discriminate.
    - assert (cmp c key (fst x) = Lt).
      { pose proof (twf_sep_lt wf (j' - 1) x ltac:(lia)) as H1.
        replace (S (j' - 1)) with j' in H1 by lia. specialize (H1 Hin).
        apply (OrderProofs.le_lt_trans c c_ok _ (sepj (j' - 1))); [|exact H1].
        apply (OrderProofs.le_trans c c_ok _ (sepj j)); [apply (OrderProofs.not_lt_le c c_ok); exact Hge|].
        apply sep_mono; lia. }
      rewrite Ek, (cmp_refl c c_ok) in H. discriminate.
  Qed.

  (* the global first >= from the routed block *)
  Lemma first_ge_in_block key j kv :
    routes_to key j -> first_ge_at c key (blk j) kv -> first_ge_at c key tkvs kv.
  Proof.
    intros (Hj & Hge & Hlt) (pre & post & Eb & Hpre & Hkv).
    exists (concat (firstn j blocks) ++ pre), (post ++ concat (skipn (S j) blocks)).
    split.
    - unfold tkvs. rewrite (concat_split blocks j Hj), Eb, <- !app_assoc. reflexivity.
    - split; [|exact Hkv]. intros x Hin. apply in_app_or in Hin as [Hin|Hin]; [|apply Hpre; exact Hin].
      apply in_concat_firstn in Hin as (j' & H1 & H2 & H3).
      apply (before_block_lt j key x j' H1 Hj H3). apply Hlt. lia.
  Qed.

  Lemma first_ge_next_block key j kv r :
    routes_to key j -> none_ge c key (blk j) -> (S j < m)%nat -> blk (S j) = kv :: r ->
    first_ge_at c key tkvs kv.
  Proof.
    intros (Hj & Hge & Hlt) Hnone Hj' Eb.
    exists (concat (firstn (S j) blocks)), (r ++ concat (skipn (S (S j)) blocks)).
    split.
    - unfold tkvs. rewrite (concat_split blocks (S j) Hj'), Eb. reflexivity.
    - split.
      + intros x Hin. apply in_concat_firstn in Hin as (j' & H1 & H2 & H3).
        destruct (Nat.eq_dec j' j) as [->|]; [apply Hnone; exact H3|].
        apply (before_block_lt j key x j' ltac:(lia) Hj H3). apply Hlt. lia.
      + apply (after_block_gt j key kv (S j) ltac:(lia) Hj'); [rewrite Eb; left; reflexivity | exact Hge].
  Qed.

  Lemma none_ge_last key j : routes_to key j -> none_ge c key (blk j) -> S j = m -> none_ge c key tkvs.
  Proof.
    intros (Hj & Hge & Hlt) Hnone Em x Hin.
    apply in_concat_nth in Hin as (j' & Hj' & Hin).
    destruct (Nat.eq_dec j' j) as [->|]; [apply Hnone; exact Hin|].
    apply (before_block_lt j key x j' ltac:(lia) Hj Hin). apply Hlt. lia.
  Qed.

  Definition find_spec (key : bytes) (r : find_res) : Prop :=
    match r with
    | FFound k v => first_ge_at c key tkvs (k, v)
    | FNotFound => none_ge c key tkvs
    | _ => False
    end.

  Lemma sorted_block j : (j < m)%nat -> sorted c (blk j).
  Proof.
    intros Hj. pose proof (twf_sorted wf) as Hs. unfold tkvs in Hs. rewrite (concat_split blocks j Hj) in Hs.
    apply (sorted_app_inv c c_ok) in Hs as (_ & Hs & _). apply (sorted_app_inv c c_ok) in Hs. apply Hs.
  Qed.

  Lemma block_seek_at_spec j key i (Hj : (j < m)%nat) :
    c_seek c (blk j) key = CAt i -> first_ge_at c key (blk j) (key_at (blk j) i, val_at (blk j) i).
  Proof.
    intros H. apply c_seek_at in H as (kv & Hn & Hge & Hlt).
    assert (Hi : (i < length (blk j))%nat) by (apply nth_error_Some; congruence).
    rewrite (nth_kv _ i Hi) in Hn. injection Hn as <-.
    exists (firstn i (blk j)), (skipn (S i) (blk j)). split.
    - rewrite (ListLemmas.split_nth (blk j) i ([], []) Hi) at 1. unfold key_at, val_at. rewrite <- surjective_pairing. reflexivity.
    - split; [|exact Hge]. intros x Hin. apply In_nth_error in Hin as (i' & Hi').
      assert (L : (i' < i)%nat).
      { assert (i' < length (firstn i (blk j)))%nat by (apply nth_error_Some; congruence).
        rewrite firstn_length in H. lia. }
      apply (Hlt i' x L). rewrite nth_error_firstn_lt in Hi' by exact L. exact Hi'.
  Qed.

  (* the seek in the index block that Find and OffsetOf start with; where it lands on position j
     the entry's value decodes to the handle of block j *)
  Lemma index_seek key :
    exists ib ioff iris ok index1,
      tr_index rd = Ok ib /\ block_layout ientries ib ioff iris /\
      bi_seek c (bi_unsliced ib) key = (ok, index1) /\
      rep ientries ib ioff iris index1 (c_seek c ientries key) /\
      ok = match c_seek c ientries key with CAt _ => true | _ => false end /\
      forall j, c_seek c ientries key = CAt j ->
        routes_to key j /\ decode_bh (bi_value index1) = BhOk (hj j) (lenN (encode_bh (hj j))).
  Proof.
    destruct (twf_index wf) as (ib & Eib & (ioff & iris & ilay)).
    destruct (seek_step c c_ok ientries ib ioff iris ilay ient_sorted (bi_unsliced ib) CSOI key (rep_unsliced _ _ _ _))
      as (ok & index1 & E1 & R1 & Eok1).
    exists ib, ioff, iris, ok, index1. repeat (split; [assumption|]).
    intros j Ej. pose proof (index_seek_at key j Ej) as Hroute. pose proof Hroute as (Hj & _).
    split; [exact Hroute|]. rewrite Ej in R1.
    pose proof R1 as (_ & _ & _ & _ & Ev & _). rewrite Ev, (ient_val j Hj).
    destruct (twf_handles wf j Hj) as [Ho Hl]. apply (decode_encode_bh _ Ho Hl).
  Qed.

  (* an unfiltered find never asks the filter *)
  Lemma unfiltered_accepts (f : option (N -> bytes -> bool)) off key :
    match f with Some contains => false && negb (contains off key) | None => false end = false.
  Proof. destruct f; reflexivity. Qed.

  Theorem tfind_spec key : find_spec key (tfind c rd key false).
  Proof.
    unfold tfind. destruct (index_seek key) as (ib & ioff & iris & ok & index1 & Eib & ilay & E1 & R1 & Eok1 & Hat).
    rewrite Eib. cbn [new_block_iter]. rewrite E1.
    destruct (c_seek_cases c key ientries) as [(j & Ej)|Ee].
    - destruct (Hat j Ej) as (Hroute & Edec). rewrite Ej in R1, Eok1. subst ok. cbn [negb].
      pose proof Hroute as (Hj & Hge & Hlt). rewrite Edec.
      rewrite unfiltered_accepts. cbv zeta.
      destruct (twf_fetch wf j Hj) as (bj & Ef & (joff & jris & jlay)). rewrite Ef.
      destruct (seek_step c c_ok (blk j) bj joff jris jlay (sorted_block j Hj) (bi_unsliced bj) CSOI key (rep_unsliced _ _ _ _))
        as (ok2 & data1 & E2 & R2 & Eok2). rewrite E2.
      destruct (c_seek_cases c key (blk j)) as [(i & Ei)|Eie].
      { rewrite Ei in R2, Eok2. subst ok2.
        pose proof R2 as (_ & _ & _ & Ek & Evv & _). rewrite Ek, Evv. cbn [find_spec].
        apply (first_ge_in_block key j _ Hroute). apply (block_seek_at_spec j key i Hj Ei). }
      rewrite Eie in R2, Eok2. subst ok2.
      pose proof R2 as ((_ & Eerr & _) & _). rewrite Eerr.
      pose proof (c_seek_eoi c key (blk j) Eie) as Hnone.
      destruct (next_step ientries ib ioff iris ilay index1 (CAt j) R1) as (ok3 & index2 & E3 & R3 & Eok3). rewrite E3.
      cbn [c_next] in R3, Eok3. rewrite ient_len in R3, Eok3.
      destruct (Nat.ltb_spec (S j) (length blocks)) as [L|L]; subst ok3; cbn [negb].
      2:{ pose proof R3 as ((_ & Eerr3 & _) & _). unfold find_noerr. rewrite Eerr3. cbn [find_spec].
          apply (none_ge_last key j Hroute Hnone). lia. }
      pose proof R3 as (_ & _ & _ & _ & Ev3 & _). rewrite Ev3, (ient_val (S j) L).
      destruct (twf_handles wf (S j) L) as [Ho3 Hl3]. rewrite (decode_encode_bh _ Ho3 Hl3).
      destruct (twf_fetch wf (S j) L) as (bj2 & Ef2 & (joff2 & jris2 & jlay2)). rewrite Ef2.
      destruct (next_step (blk (S j)) bj2 joff2 jris2 jlay2 (bi_unsliced bj2) CSOI (rep_unsliced _ _ _ _))
        as (ok4 & data2 & E4 & R4 & Eok4). rewrite E4.
      pose proof (blk_ne (S j) ltac:(lia) L) as Hne.
      destruct (blk (S j)) as [|kv0 r0] eqn:Eb; [congruence|].
      cbn [c_next c_first] in R4, Eok4. subst ok4.
      pose proof R4 as (_ & _ & _ & Ek4 & Ev4 & _). rewrite Ek4, Ev4. cbn [find_spec].
      unfold key_at, val_at. cbn [nth]. rewrite <- surjective_pairing.
      apply (first_ge_next_block key j kv0 r0 Hroute Hnone L Eb).
    - rewrite Ee in R1, Eok1. subst ok. cbn [negb].
      pose proof R1 as ((_ & Eerr & _) & _). unfold find_noerr. rewrite Eerr. cbn [find_spec].
      apply index_seek_eoi. exact Ee.
  Qed.

  (* Find(key) returns the first pair at or after key, in terms of the cursor's [first_ge] *)
  Theorem tfind_first_ge key :
    tfind c rd key false =
    match first_ge c key tkvs 0 with
    | Some i => match nth_error tkvs i with Some (k, v) => FFound k v | None => FOther end
    | None => FNotFound
    end.
  Proof.
    pose proof (tfind_spec key) as H. destruct (tfind c rd key false) as [k v| | | |]; cbn [find_spec] in H; try contradiction.
    - apply first_ge_at_fn in H as (i & E1 & E2). rewrite E1, E2. reflexivity.
    - rewrite (none_ge_fn c key tkvs H). reflexivity.
  Qed.

  Lemma sorted_split_lt (pre : list (bytes * bytes)) x post y :
    sorted c (pre ++ x :: post) -> In y post -> cmp c (fst x) (fst y) = Lt.
  Proof.
    intros Hs Hin. apply (sorted_app_inv c c_ok) in Hs as (_ & Hs & _).
    apply (sorted_app_inv c c_ok [x] post Hs); [left; reflexivity | exact Hin].
  Qed.

  Theorem tget_present k v : In (k, v) tkvs -> tget c rd k = FFound k v.
  Proof.
    intros Hin. unfold tget. pose proof (tfind_spec k) as H.
    destruct (tfind c rd k false) as [k' v'| | | |]; cbn [find_spec] in H; try contradiction.
    - destruct H as (pre & post & E & Hpre & Hge). cbn [fst] in Hge.
      pose proof (twf_sorted wf) as Hs. rewrite E in Hs, Hin.
      apply in_app_or in Hin as [Hin|[Hin|Hin]].
      + specialize (Hpre _ Hin). cbn [fst] in Hpre. rewrite (cmp_refl c c_ok) in Hpre. discriminate.
      + injection Hin as -> ->. rewrite (cmp_refl c c_ok). reflexivity.
      + pose proof (sorted_split_lt pre (k', v') post (k, v) Hs Hin) as L. cbn [fst] in L. congruence.
    - specialize (H _ Hin). cbn [fst] in H. rewrite (cmp_refl c c_ok) in H. discriminate.
  Qed.

  Theorem tget_absent k : (forall v, ~ In (k, v) tkvs) -> tget c rd k = FNotFound.
  Proof.
    intros Hnot. unfold tget. pose proof (tfind_spec k) as H.
    destruct (tfind c rd k false) as [k' v'| | | |]; cbn [find_spec] in H; try contradiction; [|reflexivity].
    destruct H as (pre & post & E & _ & _).
    destruct (cmp c k' k) eqn:Ec; try reflexivity.
    apply (cmp_eq c c_ok) in Ec. subst k'. exfalso. apply (Hnot v'). rewrite E. apply in_or_app. right. left. reflexivity.
  Qed.

  Lemma toffset_val key :
    toffset_of c rd key =
    Ok (match c_seek c ientries key with CAt j => bh_off (hj j) | _ => tr_dataEnd rd end).
  Proof.
    unfold toffset_of. destruct (index_seek key) as (ib & ioff & iris & ok & index1 & Eib & ilay & E1 & R1 & Eok1 & Hat).
    rewrite Eib. cbn [new_block_iter]. rewrite E1.
    destruct (c_seek_cases c key ientries) as [(j & Ej)|Ee].
    - destruct (Hat j Ej) as (_ & Edec). rewrite Ej in *. subst ok. rewrite Edec. reflexivity.
    - rewrite Ee in *. subst ok. pose proof R1 as ((_ & Eerr & _) & _). rewrite Eerr. reflexivity.
  Qed.

  Theorem toffset_mono k1 k2 : cmp c k1 k2 <> Gt ->
    exists o1 o2, toffset_of c rd k1 = Ok o1 /\ toffset_of c rd k2 = Ok o2 /\ o1 <= o2.
  Proof.
    intros Hle. rewrite !toffset_val. eexists. eexists. split; [reflexivity|]. split; [reflexivity|].
    destruct (c_seek_cases c k2 ientries) as [(j2 & E2)|E2]; rewrite E2.
    - pose proof (index_seek_at k2 j2 E2) as (Hj2 & Hge2 & _).
      destruct (c_seek_cases c k1 ientries) as [(j1 & E1)|E1]; rewrite E1.
      + pose proof (index_seek_at k1 j1 E1) as (Hj1 & Hge1 & Hlt1).
        apply (twf_off_mono wf); [|exact Hj2].
        destruct (Nat.le_gt_cases j1 j2) as [L|L]; [exact L|]. exfalso.
        (* sep j2 <= sep (j1-1) < k1 <= k2 <= sep j2 *)
        pose proof (sep_mono j2 (j1 - 1) ltac:(lia) ltac:(lia)) as M.
        pose proof (Hlt1 ltac:(lia)) as L1.
        assert (cmp c (sepj j2) k2 = Lt).
        { apply (OrderProofs.lt_le_trans c c_ok _ k1); [|exact Hle].
          apply (OrderProofs.le_lt_trans c c_ok _ (sepj (j1 - 1))); assumption. }
        congruence.
      + exfalso. apply c_seek_eoi in E1.
        specialize (E1 (sepj j2, encode_bh (hj j2)) ltac:(eapply nth_error_In; apply ient_nth; exact Hj2)).
        cbn [fst] in E1.
        assert (cmp c (sepj j2) k2 = Lt) by (apply (OrderProofs.lt_le_trans c c_ok _ k1); assumption).
        congruence.
    - destruct (c_seek c ientries k1) as [|j1|] eqn:E1; try lia.
      pose proof (index_seek_at k1 j1 E1) as (Hj1 & _). apply (twf_data_end wf). exact Hj1.
  Qed.

  (* no false negative, per data block: every key stored in the block at offset o passes the
     filter test the reader makes for offset o *)
  Definition filter_sound : Prop :=
    forall contains, tr_filter rd = Some contains ->
    forall j x, (j < m)%nat -> In x (blk j) -> contains (bh_off (hj j)) (fst x) = true.

  Lemma tfind_filtered key : filter_sound ->
    tfind c rd key true = tfind c rd key false \/
    (tfind c rd key true = FNotFound /\ forall x, In x tkvs -> fst x <> key).
  Proof.
    intros Hf. unfold tfind. destruct (index_seek key) as (ib & ioff & iris & ok & index1 & Eib & ilay & E1 & R1 & Eok1 & Hat).
    rewrite Eib. cbn [new_block_iter]. rewrite E1.
    destruct (c_seek_cases c key ientries) as [(j & Ej)|Ee].
    - destruct (Hat j Ej) as (Hroute & Edec). rewrite Ej in R1, Eok1. subst ok. cbn [negb].
      pose proof Hroute as (Hj & _). rewrite Edec.
      destruct (tr_filter rd) as [contains|] eqn:Et; [|left; reflexivity].
      cbn [andb]. destruct (contains (bh_off (hj j)) key) eqn:Ec; cbn [negb]; [left; reflexivity|].
      right. split; [reflexivity|]. intros x Hin Ek.
      apply in_concat_nth in Hin as (j' & Hj' & Hin).
      pose proof (routes_only key j j' x Hroute Hj' Hin Ek) as ->.
      pose proof (Hf contains Et j x Hj Hin) as Ht. rewrite Ek in Ht. congruence.
    - rewrite Ee in Eok1. subst ok. left. reflexivity.
  Qed.

  Theorem tget_filter_independent key : filter_sound -> tget_filtered c rd key = tget c rd key.
  Proof.
    intros Hf. unfold tget_filtered, tget.
    destruct (tfind_filtered key Hf) as [E|[E Hno]]; [rewrite E; reflexivity|].
    rewrite E. pose proof (tfind_spec key) as H.
    destruct (tfind c rd key false) as [k' v'| | | |]; cbn [find_spec] in H; try contradiction; [|reflexivity].
    destruct H as (pre & post & E2 & _ & _).
    destruct (cmp c k' key) eqn:Ec; try reflexivity.
    apply (cmp_eq c c_ok) in Ec. exfalso. apply (Hno (k', v')); [|exact Ec].
    rewrite E2. apply in_or_app. right. left. reflexivity.
  Qed.
End TableWf.
