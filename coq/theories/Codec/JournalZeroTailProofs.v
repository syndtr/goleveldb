(* Codec/JournalZeroTailProofs.v — the written stream cut at byte n and followed by zero bytes
   (any number of them): what a crash leaves of an unsynced journal tail on file systems that
   extend the file before the data reaches it.  For EVERY checksum function, checksums verified or
   not, both modes: the reader yields exactly the records wholly inside the cut, then at most ONE
   further record - which can only stem from the chunk the cut falls in (its header survived, its
   payload is zero-filled): no chunk is ever parsed out of the zeros themselves. *)
From GL Require Import Codec.JournalSpec Codec.JournalLemmas Codec.JournalReaderProofs
  Codec.JournalWriterProofs Codec.JournalProofs Codec.JournalDamageProofs Codec.JournalCutProofs.
From Coq Require Import PeanoNat Lia.

Section ZeroTail.
  Variable crc : bytes -> N.
  Variable p : jparams.
  Hypothesis pok : jparams_ok p.

  Let H7 : hs p = 7 := hs7 p pok.
  Let Hb : hs p < bs p := hs_lt_bs p pok.

  Definition is_bad (e : bev) : bool := match e with BBad _ _ => true | BChunk _ => false end.
  Definition bads (l : list bev) : Prop := Forall (fun e => is_bad e = true) l.
  (* what follows the chunks inside the cut: reported drops, preceded by at most one chunk *)
  Definition zt_ok (tail : list bev) : Prop :=
    bads tail \/ exists c rest, tail = BChunk c :: rest /\ bads rest.

  Lemma bads_app a b : bads a -> bads b -> bads (a ++ b).
  Proof. intros; apply Forall_app; split; assumption. Qed.

  Lemma zt_ok_app a b : zt_ok a -> bads b -> zt_ok (a ++ b).
  Proof.
    intros [Ha|(c & rest & -> & Hr)] Hb'.
    - left. apply bads_app; assumption.
    - right. exists c, (rest ++ b). split; [reflexivity|apply bads_app; assumption].
  Qed.

  Lemma firstn_repeat {A} (x : A) a : forall b, firstn a (repeat x b) = repeat x (Nat.min a b).
  Proof. induction a as [|a IH]; intros [|b]; cbn; try reflexivity. now rewrite IH. Qed.
  Lemma skipn_repeat {A} (x : A) a : forall b, skipn a (repeat x b) = repeat x (b - a).
  Proof. induction a as [|a IH]; intros [|b]; cbn [skipn repeat Nat.sub]; try reflexivity. apply IH. Qed.

  Lemma takeN_zeros n k : takeN n (zeros k) = zeros (N.min n k).
  Proof. unfold takeN, zeros. rewrite firstn_repeat. f_equal. lia. Qed.
  Lemma dropN_zeros n k : dropN n (zeros k) = zeros (k - n).
  Proof. unfold dropN, zeros. rewrite skipn_repeat. f_equal. lia. Qed.
  Lemma zeros_app a b : zeros a ++ zeros b = zeros (a + b).
  Proof. unfold zeros. rewrite <- repeat_app. f_equal. lia. Qed.
  Lemma zeros_0 : zeros 0 = [].
  Proof. reflexivity. Qed.
  Lemma le_decode_zeros k : le_decode (zeros k) = 0.
  Proof.
    unfold zeros. induction (N.to_nat k) as [|j IH]; [reflexivity|].
    cbn [repeat le_decode]. rewrite IH. reflexivity.
  Qed.
  Lemma nth_zeros i k : nth i (zeros k) 0 = 0.
  Proof.
    unfold zeros. revert i. induction (N.to_nat k) as [|j IH]; intros [|i]; cbn [repeat nth]; try reflexivity.
    apply IH.
  Qed.

  Lemma parse_zeros ck k : bads (parse_from crc p ck (zeros k)).
  Proof.
    unfold parse_from. destruct (length (zeros k)) as [|f]; cbn [parse_rest]; [constructor|].
    destruct (lenN (zeros k) <? hs p); [constructor|].
    rewrite dropN_zeros, !takeN_zeros, !le_decode_zeros, nth_zeros.
    rewrite !N.eqb_refl. cbn [andb]. constructor; [reflexivity|constructor].
  Qed.

  Lemma blocks_zeros ck : forall fuel k,
    bads (flat_map (parse_from crc p ck) (blocks p fuel (zeros k))).
  Proof.
    induction fuel as [|fuel IH]; intros k; cbn [blocks flat_map]; [constructor|].
    destruct (zeros k) as [|x b'] eqn:E; [constructor|]. rewrite <- E.
    cbn [flat_map]. rewrite takeN_zeros, dropN_zeros. apply bads_app; [apply parse_zeros|apply IH].
  Qed.

  Lemma events_zeros ck k : bads (stream_events crc p ck (zeros k)).
  Proof. unfold stream_events, stream_blocks. apply blocks_zeros. Qed.

  (* a block made of at most blockSize bytes followed by zeros *)
  Lemma events_block_zeros ck A z : lenN A <= bs p ->
    exists z1 tl, stream_events crc p ck (A ++ zeros z) = parse_from crc p ck (A ++ zeros z1) ++ tl /\ bads tl.
  Proof.
    intros HA. destruct (A ++ zeros z) as [|x b'] eqn:E.
    - apply app_eq_nil in E as (-> & E). exists 0, []. split; [reflexivity|constructor].
    - rewrite <- E. rewrite (stream_events_cons crc p pok) by (rewrite E; discriminate).
      rewrite takeN_app_ge, dropN_app_ge by exact HA. rewrite takeN_zeros, dropN_zeros.
      eexists _, _. split; [reflexivity|apply events_zeros].
  Qed.

  Lemma nth_app_zeros (A : bytes) z i : (length A <= i)%nat -> nth i (A ++ zeros z) 0 = 0.
  Proof. intros H. rewrite app_nth2 by lia. apply nth_zeros. Qed.

  Lemma parse_torn ck c n z :
    chunk_ok p c -> lenN (c_data c) < 65536 -> n < csize p c ->
    zt_ok (parse_from crc p ck (takeN n (render_chunk crc c) ++ zeros z)).
  Proof.
    destruct c as [t d]. intros (Ht1 & Ht2) Hd Hn2. cbn [c_type c_data] in *.
    unfold csize in Hn2. cbn [c_data] in Hn2.
    change {| c_type := t; c_data := d |} with (mk t d).
    pose proof pok as (_ & _ & _ & Hfull & _).
    pose proof (render_chunk_shape crc t d []) as Hs. rewrite !app_nil_r in Hs. rewrite Hs.
    set (c4 := le_encode 4 (cksum crc (t :: d))).
    set (c2 := le_encode 2 (lenN d mod 65536)).
    assert (L4 : lenN c4 = 4) by (unfold c4; rewrite lenN_le_encode; reflexivity).
    assert (L2 : lenN c2 = 2) by (unfold c2; rewrite lenN_le_encode; reflexivity).
    assert (LX : lenN (c4 ++ c2 ++ t :: d) = 7 + lenN d) by (rewrite !lenN_app, lenN_cons; lia).
    destruct (n <? 7) eqn:En.
    - (* the header itself is torn: its type byte is zero *)
      set (rest := takeN n (c4 ++ c2 ++ t :: d) ++ zeros z).
      assert (Et : nth 6 rest 0 = 0).
      { unfold rest. apply nth_app_zeros.
        assert (L : lenN (takeN n (c4 ++ c2 ++ t :: d)) = n) by (rewrite lenN_takeN; lia).
        unfold lenN in L. lia. }
      left. unfold parse_from. destruct (length rest) as [|fr]; cbn [parse_rest]; [constructor|].
      destruct (lenN rest <? hs p); [constructor|]. rewrite Et.
      destruct ((le_decode (takeN 4 rest) =? 0) && (le_decode (takeN 2 (dropN 4 rest)) =? 0) && (0 =? 0));
        [constructor; [reflexivity|constructor]|].
      replace ((0 <? tFull p) || (tLast p <? 0)) with true by lia.
      constructor; [reflexivity|constructor].
    - (* the header survived, the payload is cut and continues with zeros *)
      destruct (header_fields crc p pok t d Hd) as (_ & _ & _ & D2). fold c4 c2 in D2.
      rewrite (takeN_header c4 c2 t d n L4 L2) by lia. rewrite <- !app_assoc. cbn [app].
      rewrite (parse_header crc p pok ck c4 c2 t _ L4 L2), D2.
      repeat match goal with |- zt_ok (if ?c then _ else _) => destruct c; [left; constructor; [reflexivity|constructor]|] end.
      right. eexists _, _. split; [reflexivity|].
      rewrite dropN_app_ge, dropN_zeros by (rewrite lenN_takeN; lia). apply parse_zeros.
  Qed.

  (* a block cut at n and continued with zeros *)
  Lemma parse_cut_zeros ck cs q z :
    open_ok p cs -> forall n,
    exists tail, parse_from crc p ck (takeN n (render_chunks crc cs ++ zeros q) ++ zeros z)
                   = map BChunk (firstn (fit p cs n) cs) ++ tail /\ zt_ok tail.
  Proof.
    intros Hok. induction cs as [|c cs IH]; intros n.
    - cbn [render_chunks flat_map app firstn map fit]. rewrite takeN_zeros, zeros_app.
      eexists. split; [reflexivity|]. left. apply parse_zeros.
    - assert (Hok' : open_ok p cs) by (apply (open_ok_tail p pok c cs Hok)).
      assert (Hc : chunk_ok p c) by (destruct Hok as (_ & Hf); now inversion Hf).
      assert (Hl : lenN (c_data c) < 65536) by (apply (chunk_len_bound p pok (c :: cs)); [exact Hok|now left]).
      unfold render_chunks. cbn [flat_map]. fold (render_chunks crc cs). rewrite <- app_assoc.
      pose proof (lenN_render_chunk crc p pok c) as Lc.
      destruct (csize p c <=? n) eqn:E.
      + rewrite takeN_app_ge by lia. rewrite Lc. cbn [fit]. rewrite E.
        destruct (IH Hok' (n - csize p c)) as (tail & Ep & Ht).
        exists tail. rewrite <- app_assoc, (parse_chunk crc p pok) by assumption. rewrite Ep.
        split; [reflexivity|exact Ht].
      + rewrite takeN_app_le by lia. cbn [fit]. rewrite E. cbn [firstn map app].
        eexists. split; [reflexivity|]. apply parse_torn; try assumption; lia.
  Qed.

  (* the same over the blocks of a layout *)
  Lemma stream_events_zero_gen ck closed open :
    Forall (closed_ok p) closed -> open_ok p open -> forall n z,
    exists tail,
      stream_events crc p ck
        (takeN n (flat_map (render_closed crc p) closed ++ render_chunks crc open) ++ zeros z)
      = map BChunk (firstn (fitb p closed open n) (concat closed ++ open)) ++ tail /\ zt_ok tail.
  Proof.
    intros Hc Ho. induction closed as [|c1 closed IH]; intros n z.
    - cbn [flat_map concat app fitb].
      destruct (events_block_zeros ck (takeN n (render_chunks crc open)) z) as (z1 & tl & E & Htl).
      { rewrite lenN_takeN, (lenN_render_chunks crc p pok). destruct Ho. lia. }
      destruct (parse_cut_zeros ck open 0 z1 Ho n) as (tail & Ep & Ht).
      rewrite zeros_0, app_nil_r in Ep.
      exists (tail ++ tl). rewrite E, Ep, <- app_assoc. split; [reflexivity|apply zt_ok_app; assumption].
    - inversion Hc as [|? ? Hc1 Hc']; subst. cbn [flat_map concat]. rewrite <- !app_assoc.
      destruct Hc1 as (Hbig & Hok1).
      pose proof (lenN_render_closed crc p pok c1 Hok1) as L1.
      destruct (bs p <=? n) eqn:E.
      + rewrite takeN_app_ge by lia. rewrite L1. cbn [fitb]. rewrite E.
        destruct (IH Hc' (n - bs p) z) as (tail & Ek & Ht).
        exists tail. split; [|exact Ht]. rewrite <- app_assoc.
        rewrite (stream_events_closed crc p pok ck c1 _ (conj Hbig Hok1)), Ek, firstn_app_2, map_app, <- app_assoc.
        reflexivity.
      + rewrite takeN_app_le by lia. cbn [fitb]. rewrite E.
        destruct (events_block_zeros ck (takeN n (render_closed crc p c1)) z) as (z1 & tl & E1 & Htl).
        { rewrite lenN_takeN. lia. }
        destruct (parse_cut_zeros ck c1 (bs p - bsize p c1) z1 Hok1 n) as (tail & Ep & Ht).
        fold (render_closed crc p c1) in Ep. pose proof (fit_le p pok c1 n) as Hk.
        set (k := fit p c1 n) in *.
        rewrite firstn_app. replace (k - length c1)%nat with 0%nat by lia. cbn [firstn]. rewrite app_nil_r.
        exists (tail ++ tl). rewrite E1, Ep, <- app_assoc. split; [reflexivity|apply zt_ok_app; assumption].
  Qed.

  Definition ends_record (e : bev) : bool :=
    match e with BChunk c => is_last_type p (c_type c) | BBad _ _ => false end.
  Definition count_last (evs : list bev) : nat := length (filter ends_record evs).

  Lemma count_last_app a b : count_last (a ++ b) = (count_last a + count_last b)%nat.
  Proof. unfold count_last. rewrite filter_app, app_length. reflexivity. Qed.

  Lemma count_last_cons e evs :
    count_last (e :: evs) = ((if ends_record e then 1 else 0) + count_last evs)%nat.
  Proof. unfold count_last. cbn [filter]. destruct (ends_record e); reflexivity. Qed.
  Lemma recs_of_cons_rec d l : recs_of (Rec d :: l) = d :: recs_of l.
  Proof. reflexivity. Qed.
  Lemma recs_of_cons_drop r n l : recs_of (Dropped r n :: l) = recs_of l.
  Proof. reflexivity. Qed.
  Lemma recs_of_cons_skip l : recs_of (Skipped :: l) = recs_of l.
  Proof. reflexivity. Qed.

  Lemma recs_le_last strict : forall evs st,
    (length (recs_of (assemble p strict st evs)) <= count_last evs)%nat.
  Proof.
    induction evs as [|ev evs IH]; intros st.
    - destruct st; cbn [assemble]; [cbn; lia|]. rewrite recs_of_cons_drop. destruct strict; cbn; lia.
    - rewrite count_last_cons. destruct ev as [c|r n]; cbn [assemble ends_record].
      + destruct st.
        * destruct (is_start_type p (c_type c)).
          -- destruct (is_last_type p (c_type c)).
             ++ rewrite recs_of_cons_rec. cbn [length]. specialize (IH AIdle). lia.
             ++ specialize (IH (AIn (c_data c))). lia.
          -- rewrite recs_of_cons_drop. specialize (IH AIdle).
             destruct (is_last_type p (c_type c)); lia.
        * destruct (is_last_type p (c_type c)).
          -- rewrite recs_of_cons_rec. cbn [length]. specialize (IH AIdle). lia.
          -- specialize (IH (AIn (acc ++ c_data c))). lia.
      + rewrite recs_of_cons_drop. destruct strict; [cbn; lia|].
        destruct st; rewrite ?recs_of_cons_skip; specialize (IH AIdle); lia.
  Qed.

  Lemma count_last_bads l : bads l -> count_last l = 0%nat.
  Proof.
    induction 1 as [|e l He _ IH]; [reflexivity|]. destruct e; [discriminate|].
    rewrite count_last_cons. cbn [ends_record]. exact IH.
  Qed.

  Lemma count_last_zt tail : zt_ok tail -> (count_last tail <= 1)%nat.
  Proof.
    intros [H|(c & rest & -> & H)]; [rewrite count_last_bads by exact H; lia|].
    rewrite count_last_cons, (count_last_bads rest H). cbn [ends_record].
    destruct (is_last_type p (c_type c)); lia.
  Qed.

  Lemma cont_prefix_nonlast x cs : cont_chunks p x cs -> forall k, (k < length cs)%nat ->
    count_last (map BChunk (firstn k cs)) = 0%nat.
  Proof.
    pose proof (type_facts p pok) as (_&_&_&_&_&Hm&_&_).
    induction 1 as [d|d x cs Hc IH]; intros k Hk.
    - cbn [length] in Hk. replace k with 0%nat by lia. reflexivity.
    - destruct k as [|k]; [reflexivity|]. cbn [firstn map]. rewrite count_last_cons.
      cbn [ends_record mk c_type]. rewrite Hm. apply IH. cbn [length] in Hk. lia.
  Qed.

  Lemma rec_prefix_nonlast r cs k : rec_chunks p r cs -> (k < length cs)%nat ->
    count_last (map BChunk (firstn k cs)) = 0%nat.
  Proof.
    pose proof (type_facts p pok) as (_&_&_&Hl2&_).
    intros [r'|d x cs' Hc] Hk; cbn [length] in Hk.
    - replace k with 0%nat by lia. reflexivity.
    - destruct k as [|k]; [reflexivity|]. cbn [firstn map]. rewrite count_last_cons.
      cbn [ends_record mk c_type]. rewrite Hl2. apply (cont_prefix_nonlast x cs' Hc). lia.
  Qed.

  Lemma cut_rest_one strict tail t : zt_ok tail -> cut_rest p strict tail t -> (length (recs_of t) <= 1)%nat.
  Proof.
    intros Ht [->|(r & cs & j & Hr & Hj & ->)]; rewrite recs_of_outs.
    - pose proof (recs_le_last strict tail AIdle). pose proof (count_last_zt tail Ht). lia.
    - pose proof (recs_le_last strict (map BChunk (firstn j cs) ++ tail) AIdle) as H1.
      rewrite count_last_app, (rec_prefix_nonlast r cs j Hr Hj) in H1.
      pose proof (count_last_zt tail Ht). lia.
  Qed.

  Theorem zero_tail strict ck fl rs n z :
    exists m t,
      jread crc p strict ck (firstn n (jwrite crc p fl rs) ++ repeat 0 z) = map Rec (firstn m rs) ++ t /\
      (m <= length rs)%nat /\
      (length (jwrite crc p fl (firstn m rs)) <= n)%nat /\
      (forall j, (j <= length rs)%nat ->
                 (length (jwrite crc p fl (firstn j rs)) <= n)%nat -> (j <= m)%nat) /\
      (length (recs_of t) <= 1)%nat.
  Proof.
    destruct (chunks_of_ex crc p pok rs) as (css & Hcs).
    unfold jread. rewrite (reader_factor crc p pok), (jwrite_layout crc p pok).
    destruct (layout_chunks crc p pok rs) as ((W1 & W2) & _).
    rewrite (firstn_takeN n).
    replace (repeat 0 z) with (zeros (N.of_nat z)) by (unfold zeros; rewrite Nat2N.id; reflexivity).
    unfold render_lay.
    destruct (stream_events_zero_gen ck _ _ W1 W2 (N.of_nat n) (N.of_nat z)) as (tail & Ek & Ht).
    rewrite Ek. fold (lay_chunks (layout p rs)). rewrite (chunks_of_all p pok rs css Hcs).
    destruct (assemble_cut crc p pok strict rs css (proj1 Hcs) (fitb p (l_closed (layout p rs)) (l_open (layout p rs)) (N.of_nat n)) tail)
      as (m & t & Em & Hm & Hk & Hk2 & Hrest).
    exists m, t. split; [exact Em|]. split; [exact Hm|].
    destruct (count_exact crc p pok fl rs css m n Hcs Hm Hk Hk2) as (Hin & Hmax).
    split; [exact Hin|]. split; [exact Hmax|]. exact (cut_rest_one strict tail t Ht Hrest).
  Qed.
End ZeroTail.
