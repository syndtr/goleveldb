(* Codec/CiCmpProofs.v — the case-insensitive comparer satisfies the preorder contract and is NOT injective. *)
From GL Require Import Codec.BytesCmpProofs Codec.CiCmp.

Lemma cicmp_pre_ok : comparer_pre_ok cicmp.
Proof. apply mapped_cmp_pre_ok. apply bytewise_ok. Qed.

(* "Key" and "KEY" are one user key ... *)
Lemma cicmp_Key_KEY : cmp cicmp [75; 101; 121]%N [75; 69; 89]%N = Eq.
Proof. vm_compute. reflexivity. Qed.

(* ... so the injective contract fails for this comparer *)
Lemma cicmp_not_injective : ~ comparer_ok cicmp.
Proof.
  intros ok. pose proof (proj1 (cmp_eq cicmp ok _ _) cicmp_Key_KEY) as H. discriminate H.
Qed.

Lemma cicmp_fold a b : cmp cicmp a b = bcompare (fold_case a) (fold_case b).
Proof. reflexivity. Qed.
