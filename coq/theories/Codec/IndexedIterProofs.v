(* Codec/IndexedIterProofs.v — the table iterator [titer] of Table.v (leveldb/iterator/
   indexed_iter.go over table.indexIter) for a fixed reader, abstracting from what the blocks
   hold: an index iterator that refines the cursor over a list of index entries, each position of
   which opens a data iterator that refines the cursor over a "virtual block" V i (possibly
   EMPTY: a block of which a range slice keeps nothing), together refine the cursor over the
   concatenation of the virtual blocks, for arbitrary First/Last/Seek/Next/Prev sequences.
   TableSliceProofs.v instantiates it with the sliced index/data iterators of a well-formed
   table. *)
From GL Require Import Codec.BlockEnc Codec.BlockProofs Codec.BlockSliceProofs Codec.Table Codec.TableProofs.
From GL Require Mem.ListLemmas.
From Coq Require Import ZArith Lia.

Local Open Scope N_scope.

Definition is_at (p : cpos) : bool := match p with CAt _ => true | _ => false end.

Record refines_over (c : comparer) (L : list (bytes * bytes)) (R : biter -> cpos -> Prop) : Prop := {
  ro_step : forall d p o, R d p ->
    exists ok d', bi_step c d o = (ok, d') /\ R d' (c_step c L p o) /\ ok = is_at (c_step c L p o);
  ro_noerr : forall d p, R d p -> bi_err d = None;
  ro_get : forall d i, R d (CAt i) -> bi_valid d = true /\ nth_error L i = Some (bi_key d, bi_value d)
}.

Lemma unsliced_refines c (c_ok : comparer_ok c) l b off ris :
  block_layout l b off ris -> sorted c l -> refines_over c l (rep l b off ris).
Proof.
  intros lay Hs. constructor.
  - intros d p o R. destruct (step_refines c c_ok l b off ris lay Hs d p o R) as (ok & d' & E & R' & Eok).
    exists ok, d'. split; [exact E|]. split; [exact R'|]. rewrite Eok. destruct (c_step c l p o); reflexivity.
  - intros d p R. apply rep_slice_full in R. apply R.
  - intros d i (Hi & Hsf & Hd & Hk & Hv & _). split.
    + unfold bi_valid. rewrite (has_err_false _ _ Hsf). destruct Hd as [-> | ->]; reflexivity.
    + rewrite Hk, Hv. apply nth_kv. exact Hi.
Qed.

Lemma sliced_refines c (c_ok : comparer_ok c) l b off ris a zl rs rl :
  block_layout l b off ris -> sorted c l -> (0 < length l)%nat ->
  view_ok l ris a zl rs rl -> refines_over c (view l a zl) (rep_s l b off ris a zl rs rl).
Proof.
  intros lay Hs Hpos vok. constructor.
  - intros d p o R. destruct (step_refines_s c c_ok l b off ris lay Hs Hpos a zl rs rl vok d p o R) as (ok & d' & E & R' & Eok).
    exists ok, d'. split; [exact E|]. split; [exact R'|]. rewrite Eok. destruct (c_step c (view l a zl) p o); reflexivity.
  - intros d p R. apply rep_s_slice in R. apply R.
  - intros d i (Hi & Hsf & Hd & Hk & Hv & _). split.
    + unfold bi_valid. destruct Hsf as (_ & Ee & _). unfold bi_has_err. rewrite Ee. destruct Hd as [-> | ->]; reflexivity.
    + rewrite Hk, Hv. apply (view_kv l ris Hpos a zl rs rl vok). exact Hi.
Qed.

Section Indexed.
  Variable c : comparer.
  Variable rd : treader.
  Variable sl : option krange.                       (* the iterator's slice field *)
  Variable strict : bool.                            (* its strict flag *)
  Definition static (t : titer) : Prop := ti_slice t = sl /\ ti_strict t = strict.
  Variable IL : list (bytes * bytes).                (* index entries the index iterator ranges over *)
  Variable RI : biter -> cpos -> Prop.
  Hypothesis RI_ok : refines_over c IL RI.
  Variable V : list (list (bytes * bytes)).          (* the virtual blocks *)
  Hypothesis len_V : length V = length IL.

  Local Notation nV := (length V).
  Local Notation Vi i := (nth i V []).
  Local Notation kvs := (concat V).

  (* indexIter.Get at index position i opens an iterator over V i or, for a block that cannot be
     read, the empty iterator carrying the corruption error; a non-strict iterator then treats the
     block as holding nothing *)
  Hypothesis get_ok : forall t i, RI (ti_index t) (CAt i) -> static t ->
    (exists d0 R, index_get c rd t = Some (DBlock d0) /\ refines_over c (Vi i) R /\ R d0 CSOI) \/
    (index_get c rd t = Some (DEmpty ErrCorrupt) /\ Vi i = [] /\ strict = false).

  (* routing: what the index seek tells about the virtual blocks *)
  Hypothesis route_at : forall key i, c_seek c IL key = CAt i ->
    (forall i' x, (i' < i)%nat -> In x (Vi i') -> cmp c (fst x) key = Lt) /\
    (forall i' x, (i < i')%nat -> In x (Vi i') -> cmp c (fst x) key <> Lt).
  Hypothesis route_eoi : forall key, c_seek c IL key = CEOI ->
    forall i' x, In x (Vi i') -> cmp c (fst x) key = Lt.

  (* the index block is at least as long as its entries are many (fuel of the recursive methods) *)
  Hypothesis fuel_ok : forall ix p, RI ix p -> (length V <= length (b_data (bi_blk ix)))%nat.

  Definition before (i : nat) : nat := length (concat (firstn i V)).
  Local Notation total := (length kvs).

  Lemma before_S i : (i < nV)%nat -> before (S i) = (before i + length (Vi i))%nat.
  Proof.
    intros H. unfold before. rewrite (ListLemmas.firstn_S_nth V i [] H), concat_app, app_length.
    cbn [concat]. rewrite app_nil_r. reflexivity.
  Qed.

  Lemma before_all i : (nV <= i)%nat -> before i = total.
  Proof. intros H. unfold before. rewrite firstn_all2 by exact H. reflexivity. Qed.

  Lemma before_mono i i' : (i <= i')%nat -> (before i <= before i')%nat.
  Proof.
    intros H. induction i' as [|i' IH]; [assert (i = 0%nat) by lia; subst; lia|].
    destruct (Nat.eq_dec i (S i')) as [->|]; [lia|]. specialize (IH ltac:(lia)).
    destruct (Nat.lt_ge_cases i' nV) as [L|L]; [rewrite before_S by exact L; lia|].
    rewrite (before_all (S i')) by lia. rewrite (before_all i') in IH by lia. exact IH.
  Qed.

  Lemma before_le_total i : (before i <= total)%nat.
  Proof. rewrite <- (before_all nV) by lia. destruct (Nat.le_gt_cases i nV); [apply before_mono; lia | rewrite before_all by lia; rewrite before_all by lia; lia]. Qed.

  Lemma gpos_nth i p : (i < nV)%nat -> (p < length (Vi i))%nat -> nth_error kvs (before i + p) = nth_error (Vi i) p.
  Proof.
    intros Hi Hp. unfold before. rewrite (concat_split V i Hi).
    rewrite nth_error_app2 by lia.
    replace (length (concat (firstn i V)) + p - length (concat (firstn i V)))%nat with p by lia.
    apply nth_error_app1. exact Hp.
  Qed.

  (* first entry at or after block i / last entry before block i *)
  Definition first_from (i : nat) : cpos := if Nat.ltb (before i) total then CAt (before i) else CEOI.
  Definition last_upto (i : nat) : cpos := if Nat.ltb 0 (before i) then CAt (before i - 1) else CSOI.

  Lemma first_from_empty i : (i < nV)%nat -> Vi i = [] -> first_from (S i) = first_from i.
  Proof. intros Hi He. unfold first_from. rewrite (before_S i Hi), He. cbn [length]. rewrite Nat.add_0_r. reflexivity. Qed.

  Lemma first_from_nonempty i : (i < nV)%nat -> Vi i <> [] -> first_from i = CAt (before i).
  Proof.
    intros Hi Hne. unfold first_from.
    pose proof (before_S i Hi). pose proof (before_le_total (S i)).
    assert (0 < length (Vi i))%nat by (destruct (Vi i); [congruence | cbn; lia]).
    replace (Nat.ltb (before i) total) with true by (symmetry; apply Nat.ltb_lt; lia). reflexivity.
  Qed.

  Lemma first_from_end i : (nV <= i)%nat -> first_from i = CEOI.
  Proof. intros H. unfold first_from. rewrite (before_all i H), Nat.ltb_irrefl. reflexivity. Qed.

  Lemma last_upto_empty i : (i < nV)%nat -> Vi i = [] -> last_upto (S i) = last_upto i.
  Proof. intros Hi He. unfold last_upto. rewrite (before_S i Hi), He. cbn [length]. rewrite Nat.add_0_r. reflexivity. Qed.

  Lemma last_upto_nonempty i : (i < nV)%nat -> Vi i <> [] -> last_upto (S i) = CAt (before i + (length (Vi i) - 1)).
  Proof.
    intros Hi Hne. unfold last_upto. rewrite (before_S i Hi).
    assert (0 < length (Vi i))%nat by (destruct (Vi i); [congruence | cbn; lia]).
    replace (Nat.ltb 0 (before i + length (Vi i))) with true by (symmetry; apply Nat.ltb_lt; lia).
    f_equal. lia.
  Qed.

  Lemma last_upto_0 : last_upto 0 = CSOI.
  Proof. reflexivity. Qed.

  Definition trep (t : titer) (p : cpos) : Prop :=
    ti_err t = None /\ static t /\
    match p with
    | CSOI => ti_data t = None /\ RI (ti_index t) CSOI
    | CEOI => ti_data t = None /\ RI (ti_index t) CEOI
    | CAt g =>
        exists i q d R,
          g = (before i + q)%nat /\ (i < nV)%nat /\ (q < length (Vi i))%nat /\
          RI (ti_index t) (CAt i) /\ ti_data t = Some (DBlock d) /\
          refines_over c (Vi i) R /\ R d (CAt q)
    end.

  Definition fresh_at (t : titer) (i : nat) : Prop :=
    (exists d0 R, ti_data t = Some (DBlock d0) /\ refines_over c (Vi i) R /\ R d0 CSOI) \/
    (ti_data t = Some (DEmpty ErrCorrupt) /\ Vi i = [] /\ strict = false).

  Lemma set_data_fresh t i : RI (ti_index t) (CAt i) -> static t -> fresh_at (ti_set_data c rd t) i.
  Proof.
    intros R Hsl. destruct (get_ok t i R Hsl) as [(d0 & R0 & E & Hro & H0) | (E & Hv & Hst)].
    - left. exists d0, R0. unfold ti_set_data. cbn [ti_with ti_data]. auto.
    - right. unfold ti_set_data. cbn [ti_with ti_data]. auto.
  Qed.

  (* what every method does with an unreadable block under a non-strict iterator *)
  Lemma data_err_skipped t e0 : static t -> strict = false ->
    ti_data_err (ti_with t (ti_index t) (Some (DEmpty ErrCorrupt)) e0) (DEmpty ErrCorrupt) = None.
  Proof.
    intros [_ Hst] Hs. unfold ti_data_err. cbn [d_err ti_with ti_strict]. rewrite Hst, Hs. reflexivity.
  Qed.

  Lemma ri_noerr ix p : RI ix p -> bi_err ix = None.
  Proof. apply (ro_noerr _ _ _ RI_ok). Qed.

  Lemma ri_pos ix i : RI ix (CAt i) -> (i < nV)%nat.
  Proof.
    intros R. destruct (ro_get _ _ _ RI_ok ix i R) as [_ H]. rewrite len_V. apply nth_error_Some. rewrite H. discriminate.
  Qed.

  Lemma ri_next ix p : RI ix p -> exists ok ix', bi_next ix = (ok, ix') /\ RI ix' (c_next IL p) /\ ok = is_at (c_next IL p).
  Proof. intros R. apply (ro_step _ _ _ RI_ok ix p OpNext R). Qed.
  Lemma ri_prev ix p : RI ix p -> exists ok ix', bi_prev ix = (ok, ix') /\ RI ix' (c_prev IL p) /\ ok = is_at (c_prev IL p).
  Proof. intros R. apply (ro_step _ _ _ RI_ok ix p OpPrev R). Qed.

  Lemma c_next_IL_at i : c_next IL (CAt i) = if Nat.ltb (S i) nV then CAt (S i) else CEOI.
  Proof. cbn [c_next]. rewrite len_V. reflexivity. Qed.

  (* the index position after [ip] *)
  Definition nxt (ip : cpos) : nat := match ip with CSOI => 0%nat | CAt i => S i | CEOI => nV end.

  Lemma c_next_IL ip : c_next IL ip = if Nat.ltb (nxt ip) nV then CAt (nxt ip) else CEOI.
  Proof.
    destruct ip as [|i|]; cbn [nxt].
    - cbn [c_next]. unfold c_first. destruct IL eqn:E; rewrite len_V; [reflexivity | cbn [length]; reflexivity].
    - apply c_next_IL_at.
    - cbn [c_next]. rewrite Nat.ltb_irrefl. reflexivity.
  Qed.

  (* Next on the block just opened at index position i, given that advancing the index finds the
     first entry of the later blocks *)
  Lemma next_fresh_with fu t i :
    (forall t0 ip, (nV - nxt ip < fu)%nat ->
       ti_err t0 = None -> static t0 -> ti_data t0 = None -> RI (ti_index t0) ip ->
       exists ok t', ti_advance c rd (ti_next_f c rd fu) t0 = (ok, t') /\
                     trep t' (first_from (nxt ip)) /\ ok = is_at (first_from (nxt ip))) ->
    (nV - i < S fu)%nat ->
    ti_err t = None -> static t -> RI (ti_index t) (CAt i) -> fresh_at t i ->
    exists ok t', ti_next_f c rd (S fu) t = (ok, t') /\ trep t' (first_from i) /\ ok = is_at (first_from i).
  Proof.
    intros IH Hf He Hsl R [(d0 & R0 & Ed & Hro & H0) | (Ed & Ev & Hst)]; pose proof (ri_pos _ _ R) as Hi.
    2:{ (* unreadable block, non-strict: skipped like an empty block *)
        cbn [ti_next_f]. unfold ti_has_err. rewrite He, Ed. cbn [d_lift].
        rewrite (data_err_skipped t _ Hsl Hst).
        rewrite <- (first_from_empty i Hi Ev).
        destruct (IH (ti_clear_data (ti_with t (ti_index t) (Some (DEmpty ErrCorrupt)) None)) (CAt i))
          as (ok3 & t' & E3 & Ht & Eok3); try reflexivity.
        - cbn [nxt]. lia.
        - exact Hsl.
        - exact R.
        - exists ok3, t'. cbn [nxt] in Ht, Eok3. auto. }
    cbn [ti_next_f]. unfold ti_has_err. rewrite He, Ed. cbn [d_lift].
    destruct (ro_step _ _ _ Hro d0 CSOI OpNext H0) as (ok2 & d' & E2 & R2 & Eok2).
    cbn [bi_step c_step c_next] in E2, R2, Eok2. rewrite E2. unfold c_first in R2, Eok2.
    destruct (Vi i) as [|kv0 r0] eqn:Ev.
    - subst ok2. cbn [is_at]. unfold ti_data_err. cbn [ti_with ti_data d_err].
      rewrite (ro_noerr _ _ _ Hro d' CEOI R2).
      rewrite <- (first_from_empty i Hi Ev).
      destruct (IH (ti_clear_data (ti_with t (ti_index t) (Some (DBlock d')) None)) (CAt i))
        as (ok3 & t' & E3 & Ht & Eok3); try reflexivity.
      + cbn [nxt]. lia.
      + exact Hsl.
      + exact R.
      + exists ok3, t'. cbn [nxt] in Ht, Eok3. auto.
    - subst ok2. cbn [is_at]. rewrite (first_from_nonempty i Hi) by (rewrite Ev; discriminate).
      eexists. eexists. split; [reflexivity|]. split; [|reflexivity].
      split; [reflexivity|]. split; [exact Hsl|].
      exists i, 0%nat, d', R0. rewrite Ev. cbn [length].
      split; [lia|]. split; [exact Hi|]. split; [lia|]. split; [exact R|]. split; [reflexivity|].
      split; [exact Hro | exact R2].
  Qed.

  (* advancing the index from [ip] until a non-empty block is found lands on its first entry *)
  Lemma next_chain : forall fu t ip,
    (nV - nxt ip < fu)%nat ->
    ti_err t = None -> static t -> ti_data t = None -> RI (ti_index t) ip ->
    exists ok t', ti_advance c rd (ti_next_f c rd fu) t = (ok, t') /\
                  trep t' (first_from (nxt ip)) /\ ok = is_at (first_from (nxt ip)).
  Proof.
    induction fu as [|fu IH]; intros t ip Hf He Hsl Hd R; [lia|].
    unfold ti_advance.
    destruct (ri_next (ti_index t) ip R) as (ok & ix & E & R' & Eok). rewrite E.
    rewrite c_next_IL in R', Eok.
    destruct (Nat.ltb_spec (nxt ip) nV) as [L|L]; subst ok; cbn [is_at negb].
    - set (i := nxt ip) in *.
      set (t1 := ti_with t ix (ti_data t) (ti_err t)).
      assert (He1 : ti_err (ti_set_data c rd t1) = None) by exact He.
      apply (next_fresh_with fu (ti_set_data c rd t1) i IH); [unfold i; lia | exact He1 | exact Hsl | exact R' |].
      apply (set_data_fresh t1 i R' Hsl).
    - rewrite (first_from_end (nxt ip) L).
      eexists. eexists. split; [reflexivity|]. split; [|reflexivity].
      unfold ti_index_err. cbn [ti_with ti_index]. rewrite (ri_noerr ix CEOI R').
      split; [exact He|]. split; [exact Hsl|]. split; [exact Hd | exact R'].
  Qed.

  Lemma c_next_kvs_at i q : (i < nV)%nat -> (q < length (Vi i))%nat ->
    c_next kvs (CAt (before i + q)) =
    if Nat.ltb (S q) (length (Vi i)) then CAt (before i + S q) else first_from (S i).
  Proof.
    intros Hi Hq. cbn [c_next]. pose proof (before_S i Hi) as HS. pose proof (before_le_total (S i)) as HT.
    destruct (Nat.ltb_spec (S q) (length (Vi i))) as [L|L].
    - replace (Nat.ltb (S (before i + q)) total) with true by (symmetry; apply Nat.ltb_lt; lia). f_equal. lia.
    - unfold first_from. replace (S (before i + q)) with (before (S i)) by lia. reflexivity.
  Qed.

  Definition big_fuel (fu : nat) : Prop := (nV + 2 <= fu)%nat.

  Lemma tnext_spec fu t p : big_fuel fu -> trep t p ->
    exists ok t', ti_next_f c rd fu t = (ok, t') /\ trep t' (c_next kvs p) /\ ok = is_at (c_next kvs p).
  Proof.
    intros Hf (He & Hsl & R). unfold big_fuel in Hf. destruct fu as [|fu]; [lia|]. cbn [ti_next_f].
    unfold ti_has_err. rewrite He.
    destruct p as [|g|].
    - destruct R as [Hd R]. rewrite Hd.
      destruct (next_chain fu t CSOI ltac:(cbn [nxt]; lia) He Hsl Hd R) as (ok & t' & E & Ht & Eok). rewrite E.
      cbn [nxt] in Ht, Eok. exists ok, t'. split; [reflexivity|].
      assert (Ec : c_next kvs CSOI = first_from 0).
      { cbn [c_next]. unfold c_first, first_from, before. cbn [firstn concat length].
        destruct kvs; [reflexivity | cbn [length]; reflexivity]. }
      rewrite Ec. auto.
    - destruct R as (i & q & d & R0 & Eg & Hi & Hq & Ri & Ed & Hro & Rd). subst g.
      rewrite Ed. cbn [d_lift].
      destruct (ro_step _ _ _ Hro d (CAt q) OpNext Rd) as (ok & d' & E & R' & Eok).
      cbn [bi_step c_step c_next] in E, R', Eok. rewrite E.
      rewrite (c_next_kvs_at i q Hi Hq).
      destruct (Nat.ltb (S q) (length (Vi i))) eqn:Eli.
      + subst ok. cbn [is_at]. eexists. eexists. split; [reflexivity|]. split; [|reflexivity].
        split; [reflexivity|]. split; [exact Hsl|].
        exists i, (S q), d', R0. apply Nat.ltb_lt in Eli.
        split; [lia|]. split; [exact Hi|]. split; [exact Eli|]. split; [exact Ri|]. split; [reflexivity|]. split; [exact Hro | exact R'].
      + subst ok. cbn [is_at]. unfold ti_data_err. cbn [ti_with ti_data d_err].
        rewrite (ro_noerr _ _ _ Hro d' CEOI R').
        destruct (next_chain fu (ti_clear_data (ti_with t (ti_index t) (Some (DBlock d')) None)) (CAt i))
          as (ok2 & t' & E2 & Ht & Eok2); try reflexivity.
        * cbn [nxt]. lia.
        * exact Hsl.
        * exact Ri.
        * rewrite E2. cbn [nxt] in Ht, Eok2. exists ok2, t'. auto.
    - destruct R as [Hd R]. rewrite Hd.
      destruct (next_chain fu t CEOI ltac:(cbn [nxt]; lia) He Hsl Hd R) as (ok & t' & E & Ht & Eok). rewrite E.
      cbn [nxt] in Ht, Eok. pose proof (first_from_end nV ltac:(lia)) as Efe. rewrite Efe in Ht. rewrite Efe in Eok.
      exists ok, t'. cbn [c_next]. auto.
  Qed.

  Definition prv (ip : cpos) : nat := match ip with CSOI => 0%nat | CAt i => i | CEOI => nV end.

  Lemma c_prev_IL ip : (forall i, ip = CAt i -> (i < nV)%nat) ->
    c_prev IL ip = match prv ip with O => CSOI | S i' => CAt i' end.
  Proof.
    intros Hb. destruct ip as [|i|]; cbn [prv c_prev].
    - reflexivity.
    - destruct i; reflexivity.
    - unfold c_last. destruct IL eqn:E; rewrite len_V; [reflexivity|]. cbn [length]. f_equal. lia.
  Qed.

  Lemma enter_skipped pos self t : static t -> strict = false -> ti_data t = Some (DEmpty ErrCorrupt) ->
    ti_enter pos self t = self (ti_clear_data (ti_with t (ti_index t) (Some (DEmpty ErrCorrupt)) (ti_err t))).
  Proof.
    intros Hsl Hst Ed. unfold ti_enter. rewrite Ed. cbn [d_lift].
    rewrite (data_err_skipped t _ Hsl Hst). reflexivity.
  Qed.

  (* Last on a freshly opened block *)
  Lemma enter_last self t i :
    ti_err t = None -> static t -> RI (ti_index t) (CAt i) -> fresh_at t i ->
    match Vi i with
    | [] => exists t'', ti_enter bi_last self t = self t'' /\ ti_err t'' = None /\ static t'' /\
                        ti_data t'' = None /\ ti_index t'' = ti_index t
    | _ => exists t', ti_enter bi_last self t = (true, t') /\ trep t' (CAt (before i + (length (Vi i) - 1)))
    end.
  Proof.
    intros He Hsl R [(d0 & R0 & Ed & Hro & H0) | (Ed & Ev & Hst)]. pose proof (ri_pos _ _ R) as Hi.
    2:{ rewrite Ev. rewrite (enter_skipped bi_last self t Hsl Hst Ed).
        eexists. split; [reflexivity|]. cbn [ti_clear_data ti_with ti_err ti_data ti_index].
        split; [exact He|]. split; [exact Hsl|]. split; reflexivity. }
    unfold ti_enter. rewrite Ed. cbn [d_lift].
    destruct (ro_step _ _ _ Hro d0 CSOI OpLast H0) as (ok & d' & E & R' & Eok).
    cbn [bi_step c_step] in E, R', Eok. rewrite E. unfold c_last in R', Eok.
    destruct (Vi i) as [|kv0 r0] eqn:Ev.
    - subst ok. unfold ti_data_err. cbn [ti_with ti_data d_err is_at].
      rewrite (ro_noerr _ _ _ Hro d' CSOI R').
      eexists. split; [reflexivity|]. cbn [ti_clear_data ti_with ti_err ti_slice ti_data ti_index]. auto.
    - subst ok. cbn [is_at]. eexists. split; [reflexivity|].
      split; [exact He|]. split; [exact Hsl|].
      exists i, (length (kv0 :: r0) - 1)%nat, d', R0. rewrite Ev.
      split; [reflexivity|]. split; [exact Hi|]. split; [cbn [length]; lia|]. split; [exact R|].
      split; [reflexivity|]. split; [exact Hro | exact R'].
  Qed.

  Lemma prev_chain : forall fu t ip,
    (prv ip < fu)%nat -> (forall i, ip = CAt i -> (i < nV)%nat) ->
    ti_err t = None -> static t -> ti_data t = None -> RI (ti_index t) ip ->
    exists ok t', ti_retreat c rd (ti_prev_f c rd fu) t = (ok, t') /\
                  trep t' (last_upto (prv ip)) /\ ok = is_at (last_upto (prv ip)).
  Proof.
    induction fu as [|fu IH]; intros t ip Hf Hb He Hsl Hd R; [lia|].
    unfold ti_retreat.
    destruct (ri_prev (ti_index t) ip R) as (ok & ix & E & R' & Eok). rewrite E.
    rewrite (c_prev_IL ip Hb) in R', Eok.
    destruct (prv ip) as [|i] eqn:Ep; subst ok; cbn [is_at negb].
    - rewrite last_upto_0. eexists. eexists. split; [reflexivity|]. split; [|reflexivity].
      unfold ti_index_err. cbn [ti_with ti_index]. rewrite (ri_noerr ix CSOI R').
      split; [exact He|]. split; [exact Hsl|]. split; [exact Hd | exact R'].
    - pose proof (ri_pos _ _ R') as Hi.
      set (t1 := ti_with t ix (ti_data t) (ti_err t)).
      pose proof (set_data_fresh t1 i R' Hsl) as F.
      pose proof (enter_last (ti_prev_f c rd (S fu)) (ti_set_data c rd t1) i He Hsl R' F) as HE.
      destruct (Vi i) as [|kv0 r0] eqn:Ev.
      + destruct HE as (t'' & E2 & He2 & Hsl2 & Hd2 & Hix2). rewrite E2.
        rewrite (last_upto_empty i Hi Ev).
        (* the block is empty: Prev again, from index position i *)
        cbn [ti_prev_f]. unfold ti_has_err. rewrite He2, Hd2.
        destruct (IH t'' (CAt i)) as (ok3 & t' & E3 & Ht & Eok3); try assumption.
        * cbn [prv]. lia.
        * intros i0 Ei0. injection Ei0 as <-. exact Hi.
        * rewrite Hix2. exact R'.
        * exists ok3, t'. cbn [prv] in Ht, Eok3. auto.
      + destruct HE as (t' & E2 & Ht). rewrite E2.
        rewrite (last_upto_nonempty i Hi) by (rewrite Ev; discriminate).
        exists true, t'. rewrite Ev. auto.
  Qed.

  Lemma c_prev_kvs_at i q : (i < nV)%nat -> (q < length (Vi i))%nat ->
    c_prev kvs (CAt (before i + q)) = match q with S q' => CAt (before i + q') | O => last_upto i end.
  Proof.
    intros Hi Hq. cbn [c_prev]. destruct q as [|q'].
    - rewrite Nat.add_0_r. unfold last_upto. destruct (before i) as [|b']; [reflexivity|].
      cbn [Nat.ltb Nat.leb]. f_equal. lia.
    - replace (before i + S q')%nat with (S (before i + q')) by lia. reflexivity.
  Qed.

  Lemma tprev_spec fu t p : big_fuel fu -> trep t p ->
    exists ok t', ti_prev_f c rd fu t = (ok, t') /\ trep t' (c_prev kvs p) /\ ok = is_at (c_prev kvs p).
  Proof.
    intros Hf (He & Hsl & R). unfold big_fuel in Hf. destruct fu as [|fu]; [lia|]. cbn [ti_prev_f].
    unfold ti_has_err. rewrite He.
    destruct p as [|g|].
    - destruct R as [Hd R]. rewrite Hd.
      destruct (prev_chain fu t CSOI ltac:(cbn [prv]; lia) ltac:(intros; discriminate) He Hsl Hd R) as (ok & t' & E & Ht & Eok).
      rewrite E. cbn [prv] in Ht, Eok. rewrite last_upto_0 in Ht, Eok. exists ok, t'. cbn [c_prev]. auto.
    - destruct R as (i & q & d & R0 & Eg & Hi & Hq & Ri & Ed & Hro & Rd). subst g.
      rewrite Ed. cbn [d_lift].
      destruct (ro_step _ _ _ Hro d (CAt q) OpPrev Rd) as (ok & d' & E & R' & Eok).
      cbn [bi_step c_step c_prev] in E, R', Eok. rewrite E.
      rewrite (c_prev_kvs_at i q Hi Hq).
      destruct q as [|q'].
      + subst ok. cbn [is_at]. unfold ti_data_err. cbn [ti_with ti_data d_err].
        rewrite (ro_noerr _ _ _ Hro d' CSOI R').
        destruct (prev_chain fu (ti_clear_data (ti_with t (ti_index t) (Some (DBlock d')) None)) (CAt i))
          as (ok2 & t' & E2 & Ht & Eok2); try reflexivity.
        * cbn [prv]. lia.
        * intros i0 Ei0. injection Ei0 as <-. exact Hi.
        * exact Hsl.
        * exact Ri.
        * rewrite E2. cbn [prv] in Ht, Eok2. exists ok2, t'. auto.
      + subst ok. cbn [is_at]. eexists. eexists. split; [reflexivity|]. split; [|reflexivity].
        split; [reflexivity|]. split; [exact Hsl|].
        exists i, q', d', R0.
        split; [reflexivity|]. split; [exact Hi|]. split; [lia|]. split; [exact Ri|]. split; [reflexivity|]. split; [exact Hro | exact R'].
    - destruct R as [Hd R]. rewrite Hd.
      destruct (prev_chain fu t CEOI ltac:(cbn [prv]; lia) ltac:(intros; discriminate) He Hsl Hd R) as (ok & t' & E & Ht & Eok).
      rewrite E. cbn [prv] in Ht, Eok. exists ok, t'. split; [reflexivity|].
      assert (Ec : c_prev kvs CEOI = last_upto nV).
      { cbn [c_prev]. unfold c_last, last_upto. rewrite (before_all nV ltac:(lia)).
        destruct kvs; [reflexivity|]. cbn [length Nat.ltb Nat.leb]. reflexivity. }
      rewrite Ec. auto.
  Qed.

  Lemma in_before i x : In x (concat (firstn i V)) -> exists i', (i' < i)%nat /\ In x (Vi i').
  Proof. intros H. apply in_concat_firstn in H as (i' & H1 & _ & H3). eauto. Qed.

  Lemma in_after i x : (i < nV)%nat -> In x (concat (skipn (S i) V)) -> exists i', (i < i')%nat /\ In x (Vi i').
  Proof.
    intros Hi H. apply in_concat in H as (l & Hl & Hx). apply In_nth_error in Hl as (j & Hj).
    rewrite nth_error_skipn in Hj. exists (S i + j)%nat. split; [lia|].
    rewrite (nth_error_nth V (S i + j) [] Hj). exact Hx.
  Qed.

  Lemma seek_in i q key : (i < nV)%nat -> c_seek c IL key = CAt i -> c_seek c (Vi i) key = CAt q ->
    c_seek c kvs key = CAt (before i + q).
  Proof.
    intros Hi Hix Hs. destruct (route_at key i Hix) as [Hlt _].
    apply c_seek_at in Hs as (kv & Hn & Hkv & Hpre).
    assert (Hq : (q < length (Vi i))%nat) by (apply nth_error_Some; rewrite Hn; discriminate).
    unfold c_seek. rewrite (concat_split V i Hi).
    rewrite (ListLemmas.split_nth (Vi i) q kv Hq) at 1. rewrite (nth_error_nth (Vi i) q kv Hn).
    replace (concat (firstn i V) ++ (firstn q (Vi i) ++ kv :: skipn (S q) (Vi i)) ++ concat (skipn (S i) V))
      with ((concat (firstn i V) ++ firstn q (Vi i)) ++ kv :: (skipn (S q) (Vi i) ++ concat (skipn (S i) V)))
      by (rewrite <- !app_assoc; reflexivity).
    rewrite (first_ge_split c key).
    - rewrite app_length, firstn_length. unfold before. f_equal. lia.
    - intros x Hin. apply in_app_or in Hin as [Hin|Hin].
      + apply in_before in Hin as (i' & H1 & H2). apply (Hlt i' x H1 H2).
      + apply In_nth_error in Hin as (q' & Hq').
        assert (L : (q' < q)%nat).
        { assert (q' < length (firstn q (Vi i)))%nat by (apply nth_error_Some; rewrite Hq'; discriminate).
          rewrite firstn_length in H. lia. }
        rewrite nth_error_firstn_lt in Hq' by exact L. apply (Hpre q' x L Hq').
    - exact Hkv.
  Qed.

  (* all of blocks 0..i is below key and every later block is not: the answer is the first entry after block i *)
  Lemma seek_after i key : (i < nV)%nat -> c_seek c IL key = CAt i -> c_seek c (Vi i) key = CEOI ->
    c_seek c kvs key = first_from (S i).
  Proof.
    intros Hi Hix Hs. destruct (route_at key i Hix) as [Hlt Hge].
    pose proof (c_seek_eoi c key (Vi i) Hs) as Hnone.
    assert (Hpre : forall x, In x (concat (firstn (S i) V)) -> cmp c (fst x) key = Lt).
    { intros x Hin. apply in_before in Hin as (i' & H1 & H2).
      destruct (Nat.eq_dec i' i) as [->|]; [apply Hnone; exact H2 | apply (Hlt i' x ltac:(lia) H2)]. }
    unfold first_from. destruct (Nat.ltb_spec (before (S i)) total) as [L|L].
    - (* the rest is non-empty: its first entry *)
      assert (Esplit : kvs = concat (firstn (S i) V) ++ concat (skipn (S i) V)) by (rewrite <- concat_app, firstn_skipn; reflexivity).
      destruct (concat (skipn (S i) V)) as [|kv rest] eqn:Er.
      + exfalso. rewrite Esplit, app_nil_r in L. unfold before in L. lia.
      + unfold c_seek. rewrite Esplit, (first_ge_split c key); [reflexivity | exact Hpre |].
        assert (Hin : In kv (concat (skipn (S i) V))) by (rewrite Er; left; reflexivity).
        apply (in_after i kv Hi) in Hin as (i' & H1 & H2). apply (Hge i' kv H1 H2).
    - unfold c_seek. rewrite (none_ge_fn c key kvs); [reflexivity|].
      intros x Hin. apply Hpre. unfold before in L.
      assert (Esplit : kvs = concat (firstn (S i) V) ++ concat (skipn (S i) V)) by (rewrite <- concat_app, firstn_skipn; reflexivity).
      assert (El : concat (skipn (S i) V) = []).
      { apply (f_equal (@length _)) in Esplit. rewrite app_length in Esplit. destruct (concat (skipn (S i) V)); [reflexivity | cbn [length] in Esplit; lia]. }
      rewrite Esplit, El, app_nil_r in Hin. exact Hin.
  Qed.

  Lemma seek_none key : c_seek c IL key = CEOI -> c_seek c kvs key = CEOI.
  Proof.
    intros H. unfold c_seek. rewrite (none_ge_fn c key kvs); [reflexivity|].
    intros x Hin. apply in_concat_nth in Hin as (i' & _ & Hin). apply (route_eoi key H i' x Hin).
  Qed.

  Lemma index_of t p : trep t p -> exists ip, RI (ti_index t) ip.
  Proof.
    intros (_ & _ & R). destruct p as [|g|]; [exists CSOI; apply R | | exists CEOI; apply R].
    destruct R as (i & q & d & R0 & _ & _ & _ & Ri & _). exists (CAt i). exact Ri.
  Qed.

  Lemma tnext_nodata t ip :
    ti_err t = None -> static t -> ti_data t = None -> RI (ti_index t) ip ->
    exists ok t', ti_next c rd t = (ok, t') /\ trep t' (first_from (nxt ip)) /\ ok = is_at (first_from (nxt ip)).
  Proof.
    intros He Hsl Hd R. unfold ti_next, ti_fuel.
    assert (H2 : (nV - nxt ip < S (bi_fuel (ti_index t)))%nat).
    { (* the index block holds at least one byte per entry *)
      unfold bi_fuel. pose proof (fuel_ok (ti_index t) ip R). lia. }
    revert H2. generalize (S (bi_fuel (ti_index t))). intros fu H2.
    cbn [ti_next_f]. unfold ti_has_err. rewrite He, Hd.
    apply next_chain; assumption.
  Qed.

  Lemma fuel_big t p : RI (ti_index t) p -> big_fuel (ti_fuel t).
  Proof. intros R. unfold big_fuel, ti_fuel, bi_fuel. pose proof (fuel_ok (ti_index t) p R). lia. Qed.

  Lemma tseek_spec t p key : trep t p ->
    exists ok t', ti_seek c rd t key = (ok, t') /\ trep t' (c_seek c kvs key) /\ ok = is_at (c_seek c kvs key).
  Proof.
    intros Ht. pose proof Ht as (He & Hsl & _). destruct (index_of t p Ht) as (ip & Ri).
    unfold ti_seek, ti_has_err. rewrite He.
    destruct (ro_step _ _ _ RI_ok (ti_index t) ip (OpSeek key) Ri) as (ok & ix & E & R' & Eok).
    cbn [bi_step c_step] in E, R', Eok. rewrite E.
    destruct (c_seek_cases c key IL) as [(i & Ei)|Ee].
    - rewrite Ei in R', Eok. subst ok. cbn [is_at negb].
      pose proof (ri_pos _ _ R') as Hi.
      set (t1 := ti_with t ix (ti_data t) None).
      destruct (set_data_fresh t1 i R' Hsl) as [(d0 & R0 & Ed & Hro & H0) | (Ed & Ev & Hst)].
      2:{ (* unreadable block, non-strict: skipped *)
        rewrite (enter_skipped _ (ti_next c rd) (ti_set_data c rd t1) Hsl Hst Ed).
        assert (Eqe : c_seek c (Vi i) key = CEOI) by (rewrite Ev; reflexivity).
        rewrite (seek_after i key Hi Ei Eqe).
        match goal with |- context [ti_next c rd ?T] =>
          destruct (tnext_nodata T (CAt i)) as (ok3 & t' & E3 & Ht3 & Eok3); [reflexivity | exact Hsl | reflexivity | exact R' |]
        end.
        rewrite E3. cbn [nxt] in Ht3, Eok3. exists ok3, t'. auto. }
      unfold ti_enter. rewrite Ed. cbn [d_lift].
      destruct (ro_step _ _ _ Hro d0 CSOI (OpSeek key) H0) as (ok2 & d' & E2 & R2 & Eok2).
      cbn [bi_step c_step] in E2, R2, Eok2. rewrite E2.
      destruct (c_seek_cases c key (Vi i)) as [(q & Eq)|Eqe].
      + rewrite Eq in R2, Eok2. subst ok2. cbn [is_at].
        rewrite (seek_in i q key Hi Ei Eq).
        eexists. eexists. split; [reflexivity|]. split; [|reflexivity].
        split; [reflexivity|]. split; [exact Hsl|].
        destruct (ro_get _ _ _ Hro d' q R2) as [_ Hn].
        exists i, q, d', R0.
        split; [reflexivity|]. split; [exact Hi|]. split; [apply nth_error_Some; rewrite Hn; discriminate|].
        split; [exact R'|]. split; [reflexivity|]. split; [exact Hro | exact R2].
      + rewrite Eqe in R2, Eok2. subst ok2. cbn [is_at].
        unfold ti_data_err. cbn [ti_with ti_data d_err].
        rewrite (ro_noerr _ _ _ Hro d' CEOI R2).
        rewrite (seek_after i key Hi Ei Eqe).
        match goal with |- context [ti_next c rd ?T] =>
          destruct (tnext_nodata T (CAt i)) as (ok3 & t' & E3 & Ht3 & Eok3); [reflexivity | exact Hsl | reflexivity | exact R' |]
        end.
        rewrite E3. cbn [nxt] in Ht3, Eok3. exists ok3, t'. auto.
    - rewrite Ee in R', Eok. subst ok. cbn [is_at negb].
      rewrite (seek_none key Ee).
      eexists. eexists. split; [reflexivity|]. split; [|reflexivity].
      unfold ti_index_err. cbn [ti_with ti_index]. rewrite (ri_noerr ix CEOI R').
      split; [reflexivity|]. split; [exact Hsl|]. split; [reflexivity | exact R'].
  Qed.

  Lemma c_first_IL : c_first IL = if Nat.ltb 0 nV then CAt 0 else CEOI.
  Proof. unfold c_first. rewrite len_V. destruct IL; reflexivity. Qed.

  Lemma c_last_IL : c_last IL = if Nat.ltb 0 nV then CAt (nV - 1) else CSOI.
  Proof. unfold c_last. rewrite len_V. destruct IL; reflexivity. Qed.

  Lemma next_fresh fu t i : (nV - i < fu)%nat ->
    ti_err t = None -> static t -> RI (ti_index t) (CAt i) -> fresh_at t i ->
    exists ok t', ti_next_f c rd fu t = (ok, t') /\ trep t' (first_from i) /\ ok = is_at (first_from i).
  Proof.
    destruct fu as [|fu]; [lia|]. apply next_fresh_with. intros t0 ip. apply next_chain.
  Qed.

  Lemma tfirst_spec t p : trep t p ->
    exists ok t', ti_first c rd t = (ok, t') /\ trep t' (c_first kvs) /\ ok = is_at (c_first kvs).
  Proof.
    intros Ht. pose proof Ht as (He & Hsl & _). destruct (index_of t p Ht) as (ip & Ri).
    unfold ti_first, ti_has_err. rewrite He.
    destruct (ro_step _ _ _ RI_ok (ti_index t) ip OpFirst Ri) as (ok & ix & E & R' & Eok).
    cbn [bi_step c_step] in E, R', Eok. rewrite E.
    assert (Ec : c_first kvs = first_from 0).
    { unfold c_first, first_from, before. cbn [firstn concat length]. destruct kvs; reflexivity. }
    rewrite Ec. rewrite c_first_IL in R', Eok.
    destruct (Nat.ltb_spec 0 nV) as [Hn0|Hn0].
    2:{ subst ok. cbn [is_at negb].
      rewrite (first_from_end 0 ltac:(lia)).
      eexists. eexists. split; [reflexivity|]. split; [|reflexivity].
      unfold ti_index_err. cbn [ti_with ti_index ti_clear_data]. rewrite (ri_noerr ix CEOI R').
      split; [reflexivity|]. split; [exact Hsl|]. split; [reflexivity | exact R']. }
    { subst ok. cbn [is_at negb].
      set (t1 := ti_with t ix (ti_data t) None).
      pose proof (set_data_fresh t1 0 R' Hsl) as F.
      unfold ti_next.
      apply (next_fresh (ti_fuel (ti_set_data c rd t1)) (ti_set_data c rd t1) 0); try assumption; try reflexivity.
      pose proof (fuel_big (ti_set_data c rd t1) (CAt 0) R'). unfold big_fuel in H. lia. }
  Qed.

  Lemma tlast_spec t p : trep t p ->
    exists ok t', ti_last c rd t = (ok, t') /\ trep t' (c_last kvs) /\ ok = is_at (c_last kvs).
  Proof.
    intros Ht. pose proof Ht as (He & Hsl & _). destruct (index_of t p Ht) as (ip & Ri).
    unfold ti_last, ti_has_err. rewrite He.
    destruct (ro_step _ _ _ RI_ok (ti_index t) ip OpLast Ri) as (ok & ix & E & R' & Eok).
    cbn [bi_step c_step] in E, R', Eok. rewrite E.
    assert (Ec : c_last kvs = last_upto nV).
    { unfold c_last, last_upto. rewrite (before_all nV ltac:(lia)).
      destruct kvs; [reflexivity|]. cbn [length Nat.ltb Nat.leb]. reflexivity. }
    rewrite Ec. rewrite c_last_IL in R', Eok.
    destruct (Nat.ltb_spec 0 nV) as [Hn0|Hn0].
    2:{ subst ok. cbn [is_at negb].
      assert (Hz : nV = 0%nat) by lia. rewrite Hz, last_upto_0.
      eexists. eexists. split; [reflexivity|]. split; [|reflexivity].
      unfold ti_index_err. cbn [ti_with ti_index ti_clear_data]. rewrite (ri_noerr ix CSOI R').
      split; [reflexivity|]. split; [exact Hsl|]. split; [reflexivity | exact R']. }
    { subst ok. cbn [is_at negb].
      set (i := (nV - 1)%nat) in *.
      assert (Hi : (i < nV)%nat) by (unfold i; lia).
      set (t1 := ti_with t ix (ti_data t) None).
      pose proof (set_data_fresh t1 i R' Hsl) as F.
      pose proof (enter_last (ti_prev c rd) (ti_set_data c rd t1) i eq_refl Hsl R' F) as HE.
      assert (EnV : last_upto nV = last_upto (S i)) by (f_equal; unfold i; lia). rewrite EnV.
      destruct (Vi i) as [|kv0 r0] eqn:Ev.
      + destruct HE as (t'' & E2 & He2 & Hsl2 & Hd2 & Hix2). rewrite E2.
        rewrite (last_upto_empty i Hi Ev).
        unfold ti_prev, ti_fuel.
        assert (H2 : (i < S (bi_fuel (ti_index t'')))%nat).
        { rewrite Hix2. unfold bi_fuel. cbn [ti_set_data ti_with ti_index]. change (ti_index t1) with ix. pose proof (fuel_ok ix (CAt i) R'). lia. }
        revert H2. generalize (S (bi_fuel (ti_index t''))). intros fu H2.
        cbn [ti_prev_f]. unfold ti_has_err. rewrite He2, Hd2.
        assert (A1 : (prv (CAt i) < fu)%nat) by (cbn [prv]; lia).
        assert (A2 : forall i0, CAt i = CAt i0 -> (i0 < nV)%nat) by (intros i0 Ei0; injection Ei0 as <-; exact Hi).
        assert (A3 : RI (ti_index t'') (CAt i)) by (rewrite Hix2; exact R').
        destruct (prev_chain fu t'' (CAt i) A1 A2 He2 Hsl2 Hd2 A3) as (ok3 & t' & E3 & Ht3 & Eok3).
        rewrite E3. cbn [prv] in Ht3, Eok3. exists ok3, t'. auto.
      + destruct HE as (t' & E2 & Ht'). rewrite E2.
        rewrite (last_upto_nonempty i Hi) by (rewrite Ev; discriminate). exists true, t'. rewrite Ev. auto. }
  Qed.

  Lemma tstep_refines t p o : trep t p ->
    exists ok t', ti_step c rd t o = (ok, t') /\ trep t' (c_step c kvs p o) /\ ok = is_at (c_step c kvs p o).
  Proof.
    intros Ht. destruct (index_of t p Ht) as (ip & Ri).
    destruct o as [| |k| |]; cbn [ti_step c_step].
    - apply (tfirst_spec t p Ht).
    - apply (tlast_spec t p Ht).
    - apply (tseek_spec t p k Ht).
    - unfold ti_next. apply tnext_spec; [apply (fuel_big t ip Ri) | exact Ht].
    - unfold ti_prev. apply tprev_spec; [apply (fuel_big t ip Ri) | exact Ht].
  Qed.

  Lemma trep_get t g : trep t (CAt g) -> ti_get t = nth_error kvs g.
  Proof.
    intros (_ & _ & (i & q & d & R0 & -> & Hi & Hq & _ & Ed & Hro & Rd)).
    unfold ti_get. rewrite Ed. cbn [d_get]. rewrite (gpos_nth i q Hi Hq).
    destruct (ro_get _ _ _ Hro d q Rd) as [Hv Hn]. unfold bi_get. rewrite Hv, Hn. reflexivity.
  Qed.

  Theorem trun_refines ops : forall t p, trep t p -> fst (ti_run c rd t ops) = c_run c kvs p ops.
  Proof.
    induction ops as [|o r IH]; intros t p Ht; cbn [ti_run c_run]; [reflexivity|].
    destruct (tstep_refines t p o Ht) as (ok & t' & E & Ht' & Eok). rewrite E.
    specialize (IH t' _ Ht'). destruct (ti_run c rd t' r) as [l tf]. cbn [fst] in *. rewrite IH. f_equal.
    destruct (c_step c kvs p o) as [|g|]; subst ok; cbn [c_get is_at]; try reflexivity.
    apply trep_get. exact Ht'.
  Qed.
End Indexed.
