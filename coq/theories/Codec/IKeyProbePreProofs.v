(* Codec/IKeyProbePreProofs.v — where the lookup probe sorts, under the PREORDER contract of the user comparer
   (Base/OrderPre.v): "is the same user key" is cmp = Eq (keq), not identity of bytes, so the statements also
   cover non-injective comparers (case-insensitive order, goleveldb's own numberComparer).  No use of
   injectivity. *)
From GL Require Import Base.OrderPre Codec.IKey Codec.IKeyPreProofs.
From Coq Require Import List Lia.
Import ListNotations.
Local Open Scope N_scope.

Section ProbePre.
  Variable c : comparer.
  Hypothesis ok : comparer_pre_ok c.
  Variable p : kparams.
  Hypothesis pok : kparams_ok p.

  Lemma pack_lt_iff s s' t : t <= keyTypeSeek p ->
    pack s (keyTypeSeek p) < pack s' t <-> s < s'.
  Proof.
    intros Ht. unfold pack. destruct pok as (_ & _ & _ & H256 & _). split; intros H; nia.
  Qed.

  Lemma pprobe_precedes_iff e s' t k s : num e = pack s' t -> t <= keyTypeSeek p ->
    icmp c e (probe p k s) = Lt <-> (cmp c (uk e) k = Lt \/ (keq c (uk e) k /\ s < s')).
  Proof.
    intros Hn Ht. unfold icmp, probe, keq; cbn [uk num]. rewrite Hn.
    destruct (cmp c (uk e) k) eqn:E.
    - rewrite N.compare_lt_iff, (pack_lt_iff s s' t Ht). split.
      + intros H. right. split; [reflexivity|exact H].
      + intros [H | [_ H]]; [discriminate|exact H].
    - split; [intros _; left; reflexivity | reflexivity].
    - split; [discriminate | intros [H | [H _]]; discriminate].
  Qed.

  Lemma pprobe_not_after_iff e s' t k s : num e = pack s' t -> t <= keyTypeSeek p ->
    icmp c e (probe p k s) <> Lt <-> (cmp c k (uk e) = Lt \/ (keq c (uk e) k /\ s' <= s)).
  Proof.
    intros Hn Ht. rewrite (pprobe_precedes_iff e s' t k s Hn Ht). unfold keq.
    rewrite (pre_opp c ok (uk e) k).
    destruct (cmp c (uk e) k) eqn:E; cbn.
    - split.
      + intros H. right. split; [reflexivity|].
        destruct (N.le_gt_cases s' s) as [L|G]; [exact L|]. exfalso. apply H. right. split; [reflexivity|exact G].
      + intros [H | [_ L]] [H' | [_ G]]; try discriminate. lia.
    - split.
      + intros H. exfalso. apply H. left; reflexivity.
      + intros [H | [H _]]; discriminate.
    - split.
      + intros _. left; reflexivity.
      + intros _ [H | [H _]]; discriminate.
  Qed.

  Definition ptrailer_ok (e : ikey) : Prop := exists s' t, num e = pack s' t /\ t <= keyTypeSeek p.
  Definition pseq_of (e : ikey) : N := num e / 256.

  Lemma pseq_of_num e s' t : num e = pack s' t -> t <= keyTypeSeek p -> pseq_of e = s'.
  Proof.
    intros Hn Ht. unfold pseq_of. rewrite Hn. unfold pack. destruct pok as (_ & _ & _ & H256 & _).
    rewrite N.div_add_l by lia. rewrite N.div_small by lia. lia.
  Qed.

  Fixpoint psorted (l : list ikey) : Prop :=
    match l with
    | [] => True
    | a :: r => (match r with [] => True | b :: _ => icmp c a b = Lt end) /\ psorted r
    end.

  Lemma psorted_head_lt a r : psorted (a :: r) -> forall x, In x r -> icmp c a x = Lt.
  Proof.
    revert a. induction r as [|b r IH]; intros a H x Hx; [destruct Hx|].
    destruct H as [Hab Hr]. destruct Hx as [<-|Hx]; [exact Hab|].
    apply (picmp_trans c ok a b x Hab). apply IH; assumption.
  Qed.

  Lemma psorted_app_r l1 l2 : psorted (l1 ++ l2) -> psorted l2.
  Proof.
    induction l1 as [|a l1 IH]; cbn [app]; intros H; [exact H|].
    apply IH. destruct H as [_ H]. exact H.
  Qed.

  (* the sorted-run theorem with user-key classes: "carries k" = compares Eq to k *)
  Theorem pprobe_lands_on_newest_visible l1 e l2 k s :
    psorted (l1 ++ e :: l2) ->
    (forall x, In x (l1 ++ e :: l2) -> ptrailer_ok x) ->
    (forall x, In x l1 -> icmp c x (probe p k s) = Lt) ->
    icmp c e (probe p k s) <> Lt ->
    (forall x, In x l1 -> ~ (keq c (uk x) k /\ pseq_of x <= s)) /\
    (keq c (uk e) k -> pseq_of e <= s /\
       forall x, In x (l1 ++ e :: l2) -> keq c (uk x) k -> pseq_of x <= s -> pseq_of x <= pseq_of e) /\
    (~ keq c (uk e) k -> forall x, In x (l1 ++ e :: l2) -> ~ (keq c (uk x) k /\ pseq_of x <= s)).
  Proof.
    intros Hs Ht Hbefore He.
    assert (Hte : ptrailer_ok e) by (apply Ht, in_or_app; right; left; reflexivity).
    destruct Hte as (se & te & Hne & Hte).
    pose proof (pseq_of_num e se te Hne Hte) as Hse.
    apply (pprobe_not_after_iff e se te k s Hne Hte) in He.
    assert (Hl1 : forall x, In x l1 -> ~ (keq c (uk x) k /\ pseq_of x <= s)).
    { intros x Hx [Hu Hv].
      destruct (Ht x (in_or_app _ _ _ (or_introl Hx))) as (sx & tx & Hnx & Htx).
      pose proof (Hbefore x Hx) as Hlt.
      apply (pprobe_precedes_iff x sx tx k s Hnx Htx) in Hlt.
      rewrite (pseq_of_num x sx tx Hnx Htx) in Hv.
      destruct Hlt as [Hlt | [_ Hlt]]; [|lia].
      unfold keq in Hu. rewrite Hu in Hlt. discriminate. }
    assert (Hl2 : forall x, In x l2 -> icmp c e x = Lt).
    { intros x Hx. apply psorted_app_r in Hs. exact (psorted_head_lt e l2 Hs x Hx). }
    split; [exact Hl1|]. split.
    - intros Hu. destruct He as [He | [_ He]].
      { unfold keq in Hu. rewrite (pre_opp c ok), Hu in He. discriminate. }
      split; [lia|].
      intros x Hx Hux Hvx. apply in_app_or in Hx. destruct Hx as [Hx | [Hx | Hx]].
      + exfalso. apply (Hl1 x Hx). split; assumption.
      + subst x. lia.
      + pose proof (Hl2 x Hx) as Hlt.
        destruct (Ht x (in_or_app l1 (e :: l2) x (or_intror (in_cons e x l2 Hx)))) as (sx & tx & Hnx & Htx).
        rewrite (pseq_of_num x sx tx Hnx Htx), Hse.
        unfold icmp in Hlt.
        assert (Hex : cmp c (uk e) (uk x) = Eq).
        { unfold keq in Hu, Hux. rewrite (pcmp_eq_l c ok _ _ _ Hu). apply (pcmp_eq_sym c ok). exact Hux. }
        rewrite Hex, Hnx, Hne in Hlt. rewrite N.compare_lt_iff in Hlt. unfold pack in Hlt.
        destruct pok as (_ & _ & _ & H256 & _). nia.
    - intros Hu x Hx [Hux Hvx]. destruct He as [He | [He _]]; [|contradiction].
      apply in_app_or in Hx. destruct Hx as [Hx | [Hx | Hx]].
      + apply (Hl1 x Hx). split; assumption.
      + subst x. contradiction.
      + pose proof (Hl2 x Hx) as Hlt. unfold icmp in Hlt.
        unfold keq in Hux. rewrite (pcmp_eq_r c ok _ _ _ Hux) in Hlt.
        rewrite (pre_opp c ok), He in Hlt. cbn in Hlt. discriminate.
  Qed.
End ProbePre.

(* The index-key shortening laws under the preorder contract: a < isep a b < b and b < isucc b also
   hold for comparers that are not injective (only pre_sep_ok / the acceptance test are used). *)
Section ShortenPre.
  Variable c : comparer.
  Hypothesis ok : comparer_pre_ok c.
  Variable p : kparams.

  Lemma pltb_lt a b : ltb c a b = true -> cmp c a b = Lt.
  Proof. unfold ltb. destruct (cmp c a b); intros H; try discriminate H; reflexivity. Qed.

  Lemma picmp_ukey_lt a b : cmp c (uk a) (uk b) = Lt -> icmp c a b = Lt.
  Proof. unfold icmp. intros ->. reflexivity. Qed.

  Lemma pisep_law a b x : isep c p a b = Some x -> icmp c a x = Lt /\ icmp c x b = Lt.
  Proof.
    unfold isep. destruct (sep c (uk a) (uk b)) as [d|] eqn:S; try discriminate.
    destruct (Nat.ltb (length d) (length (uk a)) && ltb c (uk a) d)%bool eqn:C; try discriminate.
    intros H; injection H as <-.
    apply andb_prop in C as [_ C]. apply pltb_lt in C.
    split; apply picmp_ukey_lt; cbn [uk]; [exact C|].
    apply (pre_sep_ok c ok _ _ _ S).
  Qed.

  Lemma pisucc_law b x : isucc c p b = Some x -> icmp c b x = Lt.
  Proof.
    unfold isucc. destruct (succ c (uk b)) as [d|] eqn:S; try discriminate.
    destruct (Nat.ltb (length d) (length (uk b)) && ltb c (uk b) d)%bool eqn:C; try discriminate.
    intros H; injection H as <-.
    apply andb_prop in C as [_ C]. apply pltb_lt in C.
    apply picmp_ukey_lt; cbn [uk]. exact C.
  Qed.
End ShortenPre.
