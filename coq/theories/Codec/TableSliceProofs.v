(* Codec/TableSliceProofs.v — the RANGE-RESTRICTED table iterator NewIterator(&util.Range{start,
   limit}, ro): the index iterator is sliced with inclLimit = true, the data iterator of the first
   and of the last index position is sliced with the same range (indexIter.Get's isFirst/isLast
   rule), all others are not.  For a well-formed, non-empty table every movement sequence
   observes what the reference cursor over  restrict c start limit (all pairs)  observes.
   Instance of [trun_refines] (IndexedIterProofs.v). *)
From GL Require Import Base.OrderProofs Codec.BlockEnc Codec.BlockProofs Codec.BlockSliceProofs Codec.Table
  Codec.TableProofs Codec.IndexedIterProofs.
From GL Require Mem.ListLemmas.
From Coq Require Import ZArith Lia.

Local Open Scope N_scope.

Lemma concat_map_nil {A B} (f : A -> list B) (l : list A) : (forall x, In x l -> f x = []) -> concat (map f l) = [].
Proof.
  induction l as [|x l IH]; intros H; [reflexivity|]. cbn [map concat].
  rewrite (H x (or_introl eq_refl)), IH; [reflexivity|]. intros y Hy. apply H. right. exact Hy.
Qed.

Lemma map_nth_seq {A} (l : list A) d : map (fun j => nth j l d) (seq 0 (length l)) = l.
Proof.
  induction l as [|x l IH]; [reflexivity|]. cbn [length seq map nth]. f_equal.
  rewrite <- seq_shift, map_map. exact IH.
Qed.

Section TableSlice.
  Variable c : comparer.
  Hypothesis c_ok : comparer_ok c.
  Variable rd : treader.
  Variable blocks : list (list (bytes * bytes)).
  Variable seps : list bytes.
  Variable hs : list bhandle.
  Hypothesis wf : table_wf c rd blocks seps hs.
  Hypothesis nonempty : tkvs blocks <> [].
  Variable start limit : option bytes.

  Local Notation m := (length blocks).
  Local Notation blk j := (nth j blocks []).
  Local Notation sepj j := (nth j seps []).
  Local Notation hj j := (nth j hs bh0).
  Local Notation ient := (ientries seps hs).
  Local Notation sl := (Some (start, limit)).

  Definition vb (j : nat) : list (bytes * bytes) := restrict c start limit (blk j).

  Lemma all_blocks_ne j : (j < m)%nat -> blk j <> [].
  Proof.
    intros Hj. destruct (twf_blocks_ne _ _ _ _ _ wf) as [H|H]; [apply H; exact Hj|].
    exfalso. apply nonempty. unfold tkvs. rewrite H. reflexivity.
  Qed.

  Lemma ient_pos : (0 < length ient)%nat.
  Proof. rewrite (ient_len c rd blocks seps hs wf). apply (twf_m _ _ _ _ _ wf). Qed.

  (* the index block and its slice *)
  Variable ib : block.
  Variable ioff : nat -> N.
  Variable iris : list nat.
  Hypothesis ilay : block_layout ient ib ioff iris.
  Variables ja jz irs irl : nat.
  Hypothesis ivok : view_ok ient iris ja jz irs irl.
  Hypothesis ist : start_spec c ient start ja.
  Hypothesis ili : limit_spec c ient limit true ja jz.

  Local Notation RI := (rep_s ient ib ioff iris ja jz irs irl).
  Local Notation IL := (view ient ja jz).

  Lemma jz_le : (jz <= m)%nat.
  Proof. pose proof (vo_z _ _ _ _ _ _ ivok) as H. rewrite (ient_len c rd blocks seps hs wf) in H. exact H. Qed.

  Lemma ikey j : (j < m)%nat -> key_at ient j = sepj j.
  Proof. apply (ient_key c rd blocks seps hs wf). Qed.

  Definition V : list (list (bytes * bytes)) := map vb (seq ja (jz - ja)).

  Lemma V_len : length V = length IL.
  Proof. unfold V. rewrite map_length, seq_length, (view_len ient iris ient_pos ja jz irs irl ivok). reflexivity. Qed.

  Lemma V_nth i : (i < jz - ja)%nat -> nth i V [] = vb (ja + i).
  Proof.
    intros H. unfold V. rewrite (nth_indep _ [] (vb 0)) by (rewrite map_length, seq_length; exact H).
    rewrite map_nth, seq_nth by exact H. reflexivity.
  Qed.

  Lemma V_nth_in i x : In x (nth i V []) -> (i < jz - ja)%nat /\ In x (blk (ja + i)).
  Proof.
    intros H. destruct (Nat.lt_ge_cases i (jz - ja)) as [L|L].
    - split; [exact L|]. rewrite (V_nth i L) in H. unfold vb, restrict in H. apply filter_In in H. apply H.
    - rewrite nth_overflow in H by (unfold V; rewrite map_length, seq_length; exact L). destruct H.
  Qed.

  Lemma vb_before j : (j < ja)%nat -> vb j = [].
  Proof.
    intros Hj. pose proof (vo_a _ _ _ _ _ _ ivok). pose proof jz_le.
    unfold vb, restrict. apply ListLemmas.filter_none. intros x Hin.
    destruct start as [s|]; [|cbn in ist; lia]. destruct ist as (_ & Hlt & _).
    pose proof (Hlt j Hj) as L. rewrite (ikey j ltac:(lia)) in L.
    pose proof (twf_sep_ge _ _ _ _ _ wf j x ltac:(lia) Hin) as G.
    assert (Lx : cmp c (fst x) s = Lt) by (apply (OrderProofs.le_lt_trans c c_ok _ (sepj j)); assumption).
    unfold in_range, Order.leb. apply (cmp_lt_gt c c_ok) in Lx. rewrite Lx. reflexivity.
  Qed.

  Lemma vb_after j : (jz <= j)%nat -> (j < m)%nat -> vb j = [].
  Proof.
    intros Hj Hjm. unfold vb, restrict. apply ListLemmas.filter_none. intros x Hin.
    destruct limit as [l|]; [|cbn in ili; rewrite (ient_len c rd blocks seps hs wf) in ili; lia].
    destruct ili as (z & Hz1 & Hz2 & Hlt & Hge & Ez). rewrite (ient_len c rd blocks seps hs wf) in *.
    assert (Hzj : (z < j)%nat) by lia.
    specialize (Hge ltac:(lia)). rewrite (ikey z ltac:(lia)) in Hge.
    pose proof (after_block_gt c c_ok rd blocks seps hs wf z l x j Hzj Hjm Hin Hge) as G.
    unfold in_range, Order.ltb. apply andb_false_intro2. destruct (cmp c (fst x) l); congruence.
  Qed.

  Lemma vb_middle j : (ja < j)%nat -> (S j < jz)%nat -> vb j = blk j.
  Proof.
    intros H1 H2. pose proof jz_le as Hz. unfold vb, restrict. apply ListLemmas.filter_all. intros x Hin.
    unfold in_range. apply andb_true_intro. split.
    - destruct start as [s|]; [|reflexivity]. destruct ist as (_ & _ & Hge).
      rewrite (ient_len c rd blocks seps hs wf) in Hge. specialize (Hge ltac:(lia)). rewrite (ikey ja ltac:(lia)) in Hge.
      pose proof (after_block_gt c c_ok rd blocks seps hs wf ja s x j H1 ltac:(lia) Hin Hge) as G.
      unfold Order.leb. rewrite (cmp_opp c c_ok (fst x) s). destruct (cmp c (fst x) s); cbn; congruence.
    - destruct limit as [l|]; [|reflexivity].
      destruct ili as (z & Hz1 & Hz2 & Hlt & Hge & Ez). rewrite (ient_len c rd blocks seps hs wf) in *.
      assert (Hjz : (j < z)%nat) by lia.
      pose proof (Hlt j ltac:(lia) Hjz) as L. rewrite (ikey j ltac:(lia)) in L.
      pose proof (twf_sep_ge _ _ _ _ _ wf j x ltac:(lia) Hin) as G.
      unfold Order.ltb. rewrite (OrderProofs.le_lt_trans c c_ok _ (sepj j) l G L). reflexivity.
  Qed.

  Theorem V_concat : concat V = restrict c start limit (tkvs blocks).
  Proof.
    pose proof (vo_a _ _ _ _ _ _ ivok) as Ha. pose proof jz_le as Hz.
    unfold restrict, tkvs. rewrite <- concat_filter_map.
    rewrite <- (map_nth_seq blocks []) at 1. rewrite map_map.
    change (fun x => filter (in_range c start limit) (nth x blocks [])) with vb.
    replace m with (ja + ((jz - ja) + (m - jz)))%nat by lia.
    rewrite !seq_app, !map_app, !concat_app. cbn [plus].
    rewrite (concat_map_nil vb (seq 0 ja)) by (intros j Hj; apply in_seq in Hj; apply vb_before; lia).
    rewrite (concat_map_nil vb (seq (ja + (jz - ja)) (m - jz))) by (intros j Hj; apply in_seq in Hj; apply vb_after; lia).
    rewrite app_nil_r. reflexivity.
  Qed.

  Lemma RI_refines : refines_over c IL RI.
  Proof. exact (sliced_refines c c_ok ient ib ioff iris ja jz irs irl ilay (ient_sorted c c_ok rd blocks seps hs wf) ient_pos ivok). Qed.

  Lemma index_fuel ix p : RI ix p -> (length V <= length (b_data (bi_blk ix)))%nat.
  Proof.
    intros R. apply rep_s_slice in R. destruct R as (Eb & _). rewrite Eb, V_len, (view_len ient iris ient_pos ja jz irs irl ivok).
    pose proof (len_le_data ient ib ioff iris ilay). pose proof (vo_z _ _ _ _ _ _ ivok). lia.
  Qed.

  Lemma iv_key i : (ja + i < jz)%nat -> nth_error IL i = Some (sepj (ja + i), encode_bh (hj (ja + i))).
  Proof.
    intros H. rewrite (view_nth ient ja jz i ltac:(lia)).
    apply (ient_nth c rd blocks seps hs wf). pose proof jz_le. lia.
  Qed.

  Lemma route_at_s key i : c_seek c IL key = CAt i ->
    (forall i' x, (i' < i)%nat -> In x (nth i' V []) -> cmp c (fst x) key = Lt) /\
    (forall i' x, (i < i')%nat -> In x (nth i' V []) -> cmp c (fst x) key <> Lt).
  Proof.
    intros Hs. pose proof jz_le as Hz. apply c_seek_at in Hs as (kv & Hn & Hge & Hlt).
    assert (Hi : (i < jz - ja)%nat).
    { rewrite <- (view_len ient iris ient_pos ja jz irs irl ivok). apply nth_error_Some. rewrite Hn. discriminate. }
    rewrite (iv_key i ltac:(lia)) in Hn. injection Hn as <-. cbn [fst] in Hge.
    split.
    - intros i' x Hi' Hin. apply V_nth_in in Hin as [Hb Hin].
      pose proof (Hlt i' (sepj (ja + i'), encode_bh (hj (ja + i'))) Hi' (iv_key i' ltac:(lia))) as L. cbn [fst] in L.
      pose proof (twf_sep_ge _ _ _ _ _ wf (ja + i') x ltac:(lia) Hin) as G.
      apply (OrderProofs.le_lt_trans c c_ok _ (sepj (ja + i'))); assumption.
    - intros i' x Hi' Hin. apply V_nth_in in Hin as [Hb Hin].
      apply (after_block_gt c c_ok rd blocks seps hs wf (ja + i) key x (ja + i') ltac:(lia) ltac:(lia) Hin Hge).
  Qed.

  Lemma route_eoi_s key : c_seek c IL key = CEOI -> forall i' x, In x (nth i' V []) -> cmp c (fst x) key = Lt.
  Proof.
    intros Hs i' x Hin. pose proof jz_le as Hz. apply V_nth_in in Hin as [Hb Hin].
    pose proof (c_seek_eoi c key IL Hs (sepj (ja + i'), encode_bh (hj (ja + i')))) as L. cbn [fst] in L.
    specialize (L ltac:(eapply nth_error_In; apply (iv_key i'); lia)).
    pose proof (twf_sep_ge _ _ _ _ _ wf (ja + i') x ltac:(lia) Hin) as G.
    apply (OrderProofs.le_lt_trans c c_ok _ (sepj (ja + i'))); assumption.
  Qed.

  Lemma get_ok_s strict t i : RI (ti_index t) (CAt i) -> static sl strict t ->
    (exists d0 R, index_get c rd t = Some (DBlock d0) /\ refines_over c (nth i V []) R /\ R d0 CSOI) \/
    (index_get c rd t = Some (DEmpty ErrCorrupt) /\ nth i V [] = [] /\ strict = false).
  Proof.
    intros R [Hsl _]. left. pose proof jz_le as Hz.
    pose proof R as (Hi & Hs & Hd & Hk & Hv & Ho & Hp & _).
    assert (Hj : (ja + i < m)%nat) by lia.
    unfold index_get.
    assert (Hvalid : bi_valid (ti_index t) = true).
    { unfold bi_valid. destruct Hs as (_ & Ee & _). unfold bi_has_err. rewrite Ee. destruct Hd as [-> | ->]; reflexivity. }
    rewrite Hvalid. cbn [negb].
    rewrite Hv, (ient_val c rd blocks seps hs wf (ja + i) Hj).
    destruct (twf_handles _ _ _ _ _ wf (ja + i) Hj) as [Ho1 Hl1]. rewrite (decode_encode_bh _ Ho1 Hl1).
    rewrite Hsl.
    destruct (twf_fetch _ _ _ _ _ wf (ja + i) Hj) as (bj & Ef & (off & ris & lay)). rewrite Ef.
    rewrite (V_nth i ltac:(lia)).
    pose proof (sorted_block c c_ok rd blocks seps hs wf (ja + i) Hj) as Hsb.
    assert (Hpos : (0 < length (blk (ja + i)))%nat).
    { pose proof (all_blocks_ne (ja + i) Hj). destruct (blk (ja + i)); [congruence | cbn; lia]. }
    destruct (bi_is_first (ti_index t) || bi_is_last (ti_index t)) eqn:Efl.
    - (* first or last index position: the data iterator is sliced *)
      destruct (new_block_iter_sliced c c_ok (blk (ja + i)) bj off ris lay Hsb Hpos start limit false)
        as (a & zl & rs & rl & vok & R0 & Hst & Hli).
      eexists. exists (rep_s (blk (ja + i)) bj off ris a zl rs rl). split; [reflexivity|].
      unfold vb. rewrite <- (view_is_restrict c c_ok (blk (ja + i)) Hsb start limit a zl Hst Hli (vo_a _ _ _ _ _ _ vok) (vo_z _ _ _ _ _ _ vok)).
      split; [apply sliced_refines; assumption | exact R0].
    - (* a middle position: not sliced, and the range keeps the whole block *)
      apply orb_false_elim in Efl as [Ef1 El1].
      unfold bi_is_first in Ef1. unfold bi_is_last in El1.
      assert (Hmov : (bdir_eqb (bi_dir (ti_index t)) DForward || bdir_eqb (bi_dir (ti_index t)) DBackward) = true)
        by (destruct Hd as [-> | ->]; reflexivity).
      rewrite Hmov in Ef1, El1. cbn [andb] in Ef1, El1.
      destruct Hs as (_ & _ & _ & _ & _ & E4 & E5). rewrite Hp, E4 in Ef1. rewrite Ho, E5 in El1.
      pose proof (vo_a _ _ _ _ _ _ ivok) as Ha. pose proof (vo_z _ _ _ _ _ _ ivok) as Hzl.
      assert (Hi0 : (0 < i)%nat).
      { destruct i as [|i0]; [|lia]. rewrite Nat.add_0_r, N.eqb_refl in Ef1. discriminate. }
      assert (Hil : (S (ja + i) < jz)%nat).
      { destruct (Nat.eq_dec (S (ja + i)) jz) as [E|]; [rewrite E, N.eqb_refl in El1; discriminate | lia]. }
      eexists. exists (rep (blk (ja + i)) bj off ris). split; [reflexivity|].
      rewrite (vb_middle (ja + i) ltac:(lia) Hil).
      split; [apply unsliced_refines; assumption | apply rep_unsliced].
  Qed.

  Theorem sliced_run strict t ops :
    t = mkTI (new_block_iter c ib sl true) None None strict sl ->
    RI (ti_index t) CSOI ->
    fst (ti_run c rd t ops) = c_run c (restrict c start limit (tkvs blocks)) CSOI ops.
  Proof.
    intros Et R0. rewrite <- V_concat.
    apply (trun_refines c rd sl strict IL RI RI_refines V V_len (get_ok_s strict) route_at_s route_eoi_s index_fuel ops t CSOI).
    subst t. split; [reflexivity|]. split; [split; reflexivity|]. split; [reflexivity | exact R0].
  Qed.
End TableSlice.

(* NewIterator(&util.Range{start, limit}, ro) on a well-formed non-empty table *)
Theorem table_iter_sliced_refines c rd blocks seps hs start limit strict :
  comparer_ok c -> table_wf c rd blocks seps hs -> tkvs blocks <> [] ->
  exists t, new_titer c rd (Some (start, limit)) strict = inr t /\
    forall ops, fst (ti_run c rd t ops) = c_run c (restrict c start limit (tkvs blocks)) CSOI ops.
Proof.
  intros Hc wf Hne. destruct (twf_index _ _ _ _ _ wf) as (ib & Eib & (ioff & iris & ilay)).
  unfold new_titer. rewrite Eib. eexists. split; [reflexivity|].
  assert (Hpos : (0 < length (ientries seps hs))%nat)
    by (rewrite (ient_len c rd blocks seps hs wf); apply (twf_m _ _ _ _ _ wf)).
  destruct (new_block_iter_sliced c Hc (ientries seps hs) ib ioff iris ilay (ient_sorted c Hc rd blocks seps hs wf) Hpos start limit true)
    as (ja & jz & irs & irl & ivok & R0 & Hst & Hli).
  intros ops.
  apply (sliced_run c Hc rd blocks seps hs wf Hne start limit ib ioff iris ilay ja jz irs irl ivok Hst Hli strict _ ops eq_refl).
  exact R0.
Qed.
