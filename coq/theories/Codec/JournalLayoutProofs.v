(* Codec/JournalLayoutProofs.v — list-level facts about the layout loop (lay_write_st): fuel
   irrelevance, finalisation, and that writing q1 and then q2 is writing q1 ++ q2 (used for
   records written through several Write calls). *)
From GL Require Import Codec.JournalSpec Codec.JournalLemmas.
From Coq Require Import Lia.

Section LayoutProofs.
  Variable p : jparams.
  Hypothesis pok : jparams_ok p.

  Let H7 : hs p = 7 := hs7 p pok.
  Let Hb : hs p < bs p := hs_lt_bs p pok.

  (* d can still be the payload of one more chunk of the open block (not related to fit and fitb of
     JournalProofs.v, which count the chunks inside a cut) *)
  Definition fits (l : lay) (d : bytes) : Prop := bsize p (l_open l) + hs p + lenN d <= bs p.

  Lemma len_dropN_lt (n : N) (q : bytes) : 1 <= n -> q <> [] -> (length (dropN n q) < length q)%nat.
  Proof.
    intros Hn Hq. assert (L : lenN (dropN n q) <= lenN q - 1) by (rewrite lenN_dropN; lia).
    destruct q; [congruence|]. unfold lenN in L. cbn [length] in *. lia.
  Qed.

  (* One pass of the loop on data q <> []: a full block is closed first (l1, d1 below), then the n bytes that
     fit are taken from q.  What every induction over the loop needs of a pass: n >= 1, the new pending chunk
     still fits, less data is left. *)
  Lemma pass_ok l f d q : fits l d -> q <> [] ->
    let full := bsize p (l_open l) + hs p + lenN d =? bs p in
    let l1 := if full then lay_close (lay_push l (mk (nonlast_type p f) d)) else l in
    let d1 := if full then [] else d in
    let n := N.min (bs p - (bsize p (l_open l1) + hs p + lenN d1)) (lenN q) in
    1 <= n /\ n <= lenN q /\ bsize p (l_open l1) + hs p + lenN d1 + n <= bs p /\
    fits l1 (d1 ++ takeN n q) /\ (length (dropN n q) < length q)%nat.
  Proof.
    intros Hfit Hq. unfold fits in *. cbn zeta.
    assert (Lq : 1 <= lenN q) by (destruct q; [congruence|rewrite lenN_cons; lia]).
    destruct (bsize p (l_open l) + hs p + lenN d =? bs p) eqn:E.
    - change (bsize p (l_open (lay_close (lay_push l (mk (nonlast_type p f) d))))) with 0.
      change (lenN (@nil N)) with 0. cbn [app].
      set (n := N.min _ _). assert (Hn : 1 <= n) by (unfold n; lia).
      repeat split; try (unfold n; lia); [rewrite lenN_takeN; lia|apply len_dropN_lt; assumption].
    - set (n := N.min _ _). assert (Hn : 1 <= n) by (unfold n; lia).
      repeat split; try (unfold n; lia); [rewrite lenN_app, lenN_takeN; lia|apply len_dropN_lt; assumption].
  Qed.

  (* fuel beyond the length of the data is irrelevant *)
  Lemma lws_fuel : forall f1 f2 l f d q, fits l d ->
    (length q <= f1)%nat -> (length q <= f2)%nat ->
    lay_write_st p f1 l f d q = lay_write_st p f2 l f d q.
  Proof.
    induction f1 as [|f1 IH]; intros f2 l f d q Hfit H1 H2; (destruct q as [|x q]; [destruct f2; reflexivity|]);
      [cbn in H1; lia|].
    destruct f2 as [|f2]; [cbn in H2; lia|]. cbn [lay_write_st].
    destruct (pass_ok l f d (x :: q) Hfit ltac:(discriminate)) as (_ & _ & _ & Hfit' & Hlt).
    cbn [length] in *. apply IH; [exact Hfit'|lia|lia].
  Qed.

  (* lay_write is lay_write_st followed by the finalisation of the pending chunk *)
  Lemma lws_fin : forall fuel l f d q, fits l d -> (length q <= fuel)%nat ->
    lay_write p fuel l f d q =
    let '(l', f', d') := lay_write_st p fuel l f d q in lay_push l' (mk (last_type p f') d').
  Proof.
    induction fuel as [|fuel IH]; intros l f d q Hfit Hq; (destruct q as [|x q]; [reflexivity|]);
      [cbn in Hq; lia|].
    cbn [lay_write lay_write_st].
    destruct (pass_ok l f d (x :: q) Hfit ltac:(discriminate)) as (_ & _ & _ & Hfit' & Hlt).
    cbn [length] in *. apply IH; [exact Hfit'|lia].
  Qed.

  Lemma lws_fits : forall fuel l f d q, fits l d ->
    let '(l', _, d') := lay_write_st p fuel l f d q in fits l' d'.
  Proof.
    induction fuel as [|fuel IH]; intros l f d q Hfit; (destruct q as [|x q]; [exact Hfit|]); [exact Hfit|].
    cbn [lay_write_st]. apply IH. apply (pass_ok l f d (x :: q) Hfit). discriminate.
  Qed.

  (* The loop a byte at a time: a byte joins the pending chunk, after the block was closed if it was full.  It
     reaches the same state, and there writing q1 and then q2 is plainly writing q1 ++ q2. *)
  Definition byte_step (st : lay * bool * bytes) (x : N) : lay * bool * bytes :=
    let '(l, f, d) := st in
    if bsize p (l_open l) + hs p + lenN d =? bs p
    then (lay_close (lay_push l (mk (nonlast_type p f) d)), false, [x]) else (l, f, d ++ [x]).

  Lemma byte_steps_room a : forall l f d, bsize p (l_open l) + hs p + lenN d + lenN a <= bs p ->
    fold_left byte_step a (l, f, d) = (l, f, d ++ a).
  Proof.
    induction a as [|x a IH]; intros l f d H; cbn [fold_left byte_step]; [rewrite app_nil_r; reflexivity|].
    rewrite lenN_cons in H. replace (bsize p (l_open l) + hs p + lenN d =? bs p) with false by lia.
    rewrite IH by (rewrite lenN_app, lenN_cons, lenN_nil; lia). rewrite <- app_assoc. reflexivity.
  Qed.

  Lemma lws_bytes : forall fuel l f d q, fits l d -> (length q <= fuel)%nat ->
    lay_write_st p fuel l f d q = fold_left byte_step q (l, f, d).
  Proof.
    induction fuel as [|fuel IH]; intros l f d q Hfit Hq; (destruct q as [|x q]; [reflexivity|]);
      [cbn in Hq; lia|].
    cbn [lay_write_st].
    destruct (pass_ok l f d (x :: q) Hfit ltac:(discriminate)) as (Hn & Hnq & Hroom & Hfit' & Hlt).
    cbn zeta in *. cbn [length] in Hq, Hlt. rewrite IH by (try exact Hfit'; lia).
    set (n := N.min _ _) in *. rewrite <- (takeN_dropN n (x :: q)) at 3. rewrite fold_left_app. f_equal.
    destruct (takeN n (x :: q)) as [|y a] eqn:Ea.
    { apply (f_equal lenN) in Ea. rewrite lenN_takeN, lenN_nil in Ea. lia. }
    assert (La : lenN (y :: a) = n) by (rewrite <- Ea, lenN_takeN; lia). rewrite lenN_cons in La.
    cbn [fold_left byte_step].
    destruct (bsize p (l_open l) + hs p + lenN d =? bs p).
    - change (bsize p (l_open (lay_close (lay_push l (mk (nonlast_type p f) d))))) with 0 in *.
      change (lenN (@nil N)) with 0 in Hroom.
      rewrite (byte_steps_room a _ false [y]); [reflexivity|].
      change (bsize p (l_open (lay_close (lay_push l (mk (nonlast_type p f) d))))) with 0.
      change (lenN [y]) with 1. lia.
    - rewrite byte_steps_room by (rewrite lenN_app, lenN_cons, lenN_nil; lia). rewrite <- app_assoc. reflexivity.
  Qed.

  Lemma lws_app fuel l f d q1 q2 : fits l d -> (length (q1 ++ q2) <= fuel)%nat ->
    lay_write_st p fuel l f d (q1 ++ q2) =
    let '(l1, f1, d1) := lay_write_st p fuel l f d q1 in lay_write_st p fuel l1 f1 d1 q2.
  Proof.
    intros Hfit Hf. rewrite app_length in Hf. pose proof (lws_fits fuel l f d q1 Hfit) as Hfit1.
    rewrite (lws_bytes fuel l f d (q1 ++ q2)), fold_left_app, <- (lws_bytes fuel l f d q1)
      by (rewrite ?app_length; try exact Hfit; lia).
    destruct (lay_write_st p fuel l f d q1) as ((l1 & f1) & d1). symmetry. apply lws_bytes; [exact Hfit1|lia].
  Qed.
End LayoutProofs.
