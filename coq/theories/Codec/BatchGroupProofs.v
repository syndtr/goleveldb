(* Codec/BatchGroupProofs.v — the journal record of a merged group (writeBatchesWithHeader) and its replay
   (decodeBatchToMem) against the live path (Batch.putMem of the group's batches in order).  Purely
   structural: both paths are the same sequence of makeInternalKey + memdb.Put calls, whatever the memdb
   does with them. *)
From GL Require Import Base.BytesProofs Base.VarintProofs Codec.Batch Codec.BatchProofs.
From GL Require Mem.MemDB.
From Coq Require Import Lia.
Open Scope N_scope.

Lemma u64_idem_l a b : u64 (u64 a + b) = u64 (a + b).
Proof. unfold u64. apply N.add_mod_idemp_l. lia. Qed.

Lemma lenN_le64 x : lenN (le64 x) = 8.
Proof. unfold lenN, le64. rewrite le_encode_length. reflexivity. Qed.

Section Header.
  Variable bhl : N.
  Hypothesis bhl12 : bhl = 12.

  Lemma header_roundtrip seq n body :
    seq < 2 ^ 64 -> n < 2 ^ 32 ->
    decode_header bhl (encode_header seq n ++ body) = inr (seq, n) /\
    dropN bhl (encode_header seq n ++ body) = body.
  Proof.
    intros Hs Hn. unfold decode_header, encode_header. rewrite bhl12.
    rewrite u64_small by exact Hs. rewrite u32_small by exact Hn.
    assert (L : lenN (le64 seq ++ le32 n) = 12) by (rewrite lenN_app, lenN_le64, lenN_le32; reflexivity).
    split.
    - replace (lenN ((le64 seq ++ le32 n) ++ body) <? 12) with false by (rewrite lenN_app, L; lia).
      f_equal. f_equal.
      + rewrite <- app_assoc. replace 8 with (lenN (le64 seq)) by apply lenN_le64.
        rewrite takeN_app. apply le64_roundtrip. exact Hs.
      + rewrite <- app_assoc.
        replace 8 with (lenN (le64 seq)) by apply lenN_le64.
        replace 12 with (lenN (le64 seq) + lenN (le32 n)) by (rewrite lenN_le64, lenN_le32; reflexivity).
        rewrite sliceN_app3. unfold le32. rewrite le_decode_encode.
        change (256 ^ N.of_nat 4) with (2 ^ 32). apply N.mod_small. exact Hn.
    - rewrite <- L. apply dropN_app.
  Qed.

  Lemma header_short data : lenN data < 12 -> decode_header bhl data = inl ETooShort.
  Proof. intros H. unfold decode_header. rewrite bhl12. replace (lenN data <? 12) with true by lia. reflexivity. Qed.

End Header.

Section Group.
  Variable p : kparams.
  Hypothesis pok : kparams_ok p.

  Definition group_of (groups : list (list brec)) : list batch := map (batch_of p) groups.

  Lemma batches_len_from bs : forall n, fold_left (fun n b => n + batch_len b) bs n = n + batches_len bs.
  Proof.
    unfold batches_len. induction bs as [|b t IH]; intros n; cbn [fold_left]; [lia|].
    rewrite IH. rewrite (IH (0 + batch_len b)). lia.
  Qed.

  Lemma batches_len_cons b t : batches_len (b :: t) = batch_len b + batches_len t.
  Proof. unfold batches_len at 1. cbn [fold_left]. rewrite batches_len_from. lia. Qed.

  Lemma idxs_of_length recs : forall o, length (idxs_of p o recs) = length recs.
  Proof. induction recs as [|r t IH]; intros o; cbn [idxs_of length]; [reflexivity|]. f_equal. apply IH. Qed.

  Lemma batch_len_of recs : batch_len (batch_of p recs) = N.of_nat (length recs).
  Proof. rewrite batch_of_spec. unfold batch_len, lenN. cbn [b_index]. rewrite idxs_of_length. reflexivity. Qed.

  Lemma group_len groups : batches_len (group_of groups) = N.of_nat (length (concat groups)).
  Proof.
    induction groups as [|g t IH]; [reflexivity|].
    cbn [group_of map concat]. rewrite batches_len_cons. fold (group_of t). rewrite IH, batch_len_of, app_length. lia.
  Qed.

  Lemma group_data groups : concat (map b_data (group_of groups)) = enc_recs p (concat groups).
  Proof.
    induction groups as [|g t IH]; [reflexivity|].
    cbn [group_of map concat]. fold (group_of t). rewrite IH, batch_of_spec, enc_recs_app. reflexivity.
  Qed.

  Section Mem.
    Variable mc : comparer.
    Variable mp : MemDB.mparams.

    Local Notation put_one := (put_one p mc mp).

    Lemma putmem_recs_u64 recs : forall s d hs,
      putmem_recs p mc mp recs (u64 s) d hs = putmem_recs p mc mp recs s d hs.
    Proof.
      induction recs as [|[[kt k] v] t IH]; intros s d hs; [reflexivity|].
      cbn [putmem_recs]. replace (u64 (u64 s)) with (u64 s) by (unfold u64; rewrite N.mod_mod by lia; reflexivity).
      destruct (put_one d hs k (u64 s) kt v) as [d' hs'| |]; try reflexivity.
      rewrite <- (IH (u64 s + 1)), <- (IH (s + 1)). f_equal. apply u64_idem_l.
    Qed.

    Lemma putmem_recs_app a : forall b s d hs,
      putmem_recs p mc mp (a ++ b) s d hs =
      match putmem_recs p mc mp a s d hs with
      | PmOk d' hs' => putmem_recs p mc mp b (s + N.of_nat (length a)) d' hs'
      | e => e
      end.
    Proof.
      induction a as [|[[kt k] v] t IH]; intros b s d hs.
      - cbn [app putmem_recs length]. rewrite N.add_0_r. reflexivity.
      - cbn [app putmem_recs length]. destruct (put_one d hs k (u64 s) kt v) as [d' hs'| |]; try reflexivity.
        rewrite IH. destruct (putmem_recs p mc mp t (s + 1) d' hs'); try reflexivity. f_equal. lia.
    Qed.

    (* putMem walks the index of a batch: it performs the insertions of the records the index denotes *)
    Lemma putmem_idx_records data ixs : forall recs seq i d hs,
      idx_records data ixs = Some recs ->
      putmem_idx p mc mp data ixs seq i d hs = putmem_recs p mc mp recs (seq + i) d hs.
    Proof.
      induction ixs as [|ix r IH]; intros recs seq i d hs E; cbn [idx_records putmem_idx] in *.
      - injection E as <-. reflexivity.
      - destruct (idx_k data ix) as [k|]; [|discriminate]. destruct (idx_v data ix) as [v|]; [|discriminate].
        destruct (idx_records data r) as [t|]; [|discriminate]. injection E as <-. cbn [putmem_recs].
        destruct (put_one d hs k (u64 (seq + i)) (bi_kt ix) v) as [d' hs'| |]; try reflexivity.
        rewrite (IH t seq (i + 1) d' hs' eq_refl). f_equal. lia.
    Qed.

    Theorem putmem_batch_of recs seq d hs :
      Forall (rec_ok p) recs -> lenN (enc_recs p recs) < 2 ^ 63 ->
      batch_putmem p mc mp (batch_of p recs) seq d hs = putmem_recs p mc mp (map (norm_rec p) recs) seq d hs.
    Proof.
      intros Hok Hlen. rewrite batch_of_spec. unfold batch_putmem. cbn [b_data b_index].
      pose proof (idx_records_recs p pok recs [] [] Hok) as H.
      cbn [app lenN length N.of_nat] in H. rewrite app_nil_r in H.
      rewrite (putmem_idx_records _ _ _ seq 0 d hs (H Hlen)), N.add_0_r. reflexivity.
    Qed.

    (* the loop of writeLocked over the group's batches = the insertions of all their records in order *)
    Theorem putmem_group_recs groups : forall seq d hs,
      Forall (rec_ok p) (concat groups) -> lenN (enc_recs p (concat groups)) < 2 ^ 63 ->
      putmem_group p mc mp (group_of groups) seq d hs =
      putmem_recs p mc mp (map (norm_rec p) (concat groups)) seq d hs.
    Proof.
      induction groups as [|g t IH]; intros seq d hs Hok Hlen; [reflexivity|].
      cbn [group_of map concat putmem_group] in *. fold (group_of t).
      apply Forall_app in Hok as [Hg Ht]. rewrite enc_recs_app, lenN_app in Hlen.
      rewrite putmem_batch_of by (try exact Hg; lia).
      rewrite map_app, putmem_recs_app.
      destruct (putmem_recs p mc mp (map (norm_rec p) g) seq d hs) as [d' hs'| |]; try reflexivity.
      rewrite IH by (try exact Ht; lia). rewrite batch_len_of, putmem_recs_u64, map_length. reflexivity.
    Qed.

    (* decodeBatchToMem's callback over an index = the same insertions, provided the header count is not
       exceeded *)
    Lemma tomem_fold_records data ixs : forall recs seq blen i d hs n,
      idx_records data ixs = Some recs -> (0 <= i)%Z -> (i + Z.of_nat (length ixs) <= Z.of_N blen)%Z ->
      cb_fold (tomem_cb p mc mp data seq blen) i (mktm d hs n) ixs =
      match putmem_recs p mc mp recs (seq + Z.to_N i) d hs with
      | PmOk d' hs' => CbOk (mktm d' hs' (n + Z.of_nat (length ixs))%Z)
      | PmPanic => CbPanic
      | PmFuel => CbFuel
      end.
    Proof.
      induction ixs as [|ix r IH]; intros recs seq blen i d hs n E Hi Hb; cbn [idx_records cb_fold length] in *.
      - injection E as <-. cbn [putmem_recs]. rewrite Z.add_0_r. reflexivity.
      - unfold tomem_cb at 1. cbn [tm_db tm_hs tm_n]. replace (Z.of_N blen <=? i)%Z with false by lia.
        destruct (idx_k data ix) as [k|]; [|discriminate]. destruct (idx_v data ix) as [v|]; [|discriminate].
        destruct (idx_records data r) as [t|]; [|discriminate]. injection E as <-. cbn [putmem_recs].
        destruct (put_one d hs k (u64 (seq + Z.to_N i)) (bi_kt ix) v) as [d' hs'| |]; try reflexivity.
        rewrite (IH t seq blen (i + 1)%Z d' hs' (n + 1)%Z eq_refl) by lia.
        replace (seq + Z.to_N (i + 1)) with (seq + Z.to_N i + 1) by lia.
        destruct (putmem_recs p mc mp t (seq + Z.to_N i + 1) d' hs'); try reflexivity.
        f_equal. f_equal. lia.
    Qed.

  End Mem.
End Group.

Section Replay.
  Variable p : kparams.
  Hypothesis pok : kparams_ok p.
  Variable bhl : N.
  Hypothesis bhl12 : bhl = 12.

  (* ONE journal record for the whole group: its header decodes to the group's first sequence number and
     the total number of records, its body decodes (Load) to the batch holding the concatenation of the
     group's records in order.  Stated in Props/C01.v as C01_group_record_roundtrip. *)
  Theorem group_record_roundtrip groups seq :
    Forall (rec_ok p) (concat groups) -> seq < 2 ^ 64 ->
    N.of_nat (length (concat groups)) < 2 ^ 32 -> lenN (enc_recs p (concat groups)) < 2 ^ 59 ->
    let record := group_record (group_of p groups) seq in
    decode_header bhl record = inr (seq, N.of_nat (length (concat groups))) /\
    batch_load p (dropN bhl record) = DOk (batch_of p (concat groups)) /\
    batch_records (batch_of p (concat groups)) = Some (map (norm_rec p) (concat groups)).
  Proof.
    intros Hok Hs Hn Hl. cbv zeta. unfold group_record. rewrite (group_len p), (group_data p).
    destruct (header_roundtrip bhl bhl12 seq (N.of_nat (length (concat groups))) (enc_recs p (concat groups)) Hs Hn) as [H1 H2].
    split; [exact H1|]. rewrite H2.
    pose proof (load_dump p pok (concat groups) Hok Hl) as L.
    unfold batch_dump in L. rewrite batch_of_spec in L at 1. cbn [b_data] in L. split; [exact L|].
    destruct (batch_roundtrip p pok (concat groups) Hok Hl) as (b & E1 & E2 & _).
    unfold batch_dump in E1. rewrite batch_of_spec in E1 at 1. cbn [b_data] in E1. rewrite L in E1.
    injection E1 as <-. exact E2.
  Qed.

  Section Mem.
    Variable mc : comparer.
    Variable mp : MemDB.mparams.

    (* decodeBatchToMem of the journal record of a group, for EVERY memdb state and height sequence: rejected
       without touching the memdb when the record is older than the expected sequence number; otherwise it
       is exactly putMem of the group's batches in order — the same memdb, the same heights consumed, the
       same panic or fuel outcome if the memdb misbehaves — and it returns the first sequence number and the
       total count.  Stated in Props/C01.v as C01_replay_equals_live. *)
    Theorem replay_equals_live groups seq expect d hs :
      Forall (rec_ok p) (concat groups) -> seq < 2 ^ 64 ->
      N.of_nat (length (concat groups)) < 2 ^ 32 -> lenN (enc_recs p (concat groups)) < 2 ^ 59 ->
      seq + N.of_nat (length (concat groups)) <= keyMaxSeq p ->
      decode_to_mem p bhl mc mp (group_record (group_of p groups) seq) expect d hs =
      if seq <? expect then TmErr ESeq d hs
      else match putmem_group p mc mp (group_of p groups) seq d hs with
           | PmOk d' hs' => TmOk seq (N.of_nat (length (concat groups))) d' hs'
           | PmPanic => TmPanic
           | PmFuel => TmFuel
           end.
    Proof.
      intros Hok Hs Hn Hl Hr.
      assert (Hl' : lenN (enc_recs p (concat groups)) < 2 ^ 63).
      { change (2 ^ 59) with 576460752303423488 in Hl. change (2 ^ 63) with 9223372036854775808. lia. }
      unfold decode_to_mem, group_record. rewrite (group_len p), (group_data p).
      destruct (header_roundtrip bhl bhl12 seq (N.of_nat (length (concat groups))) (enc_recs p (concat groups)) Hs Hn) as [H1 H2].
      rewrite H1, H2. destruct (seq <? expect); [reflexivity|].
      replace ((keyMaxSeq p <? seq) || (keyMaxSeq p - seq <? N.of_nat (length (concat groups)))) with false by lia.
      set (all := concat groups) in *.
      rewrite (decode_all p pok _ _ all _ Hok Hl').
      pose proof (idx_records_recs p pok all [] [] Hok) as R.
      cbn [app lenN length N.of_nat] in R. rewrite app_nil_r in R.
      rewrite (tomem_fold_records p mc mp _ _ _ seq (N.of_nat (length all)) 0%Z d hs 0%Z (R Hl'))
        by (rewrite ?(idxs_of_length p); lia).
      rewrite (idxs_of_length p).
      change (Z.to_N 0) with 0. rewrite N.add_0_r.
      rewrite (putmem_group_recs p pok mc mp) by assumption. fold all.
      destruct (putmem_recs p mc mp (map (norm_rec p) all) seq d hs) as [d' hs'| |]; try reflexivity.
      cbn [tm_n tm_db tm_hs]. replace (0 + Z.of_nat (length all) =? Z.of_N (N.of_nat (length all)))%Z with true by lia.
      reflexivity.
    Qed.

    (* an accepted record keeps its sequence numbers, and the db.seq recovery continues with, inside the range
       of an internal key: first seq + count <= keyMaxSeq (so "batchSeq + uint64(batchLen)" never wraps) *)
    Theorem decode_to_mem_range data expect d hs sq bl d' hs' :
      decode_to_mem p bhl mc mp data expect d hs = TmOk sq bl d' hs' -> sq + bl <= keyMaxSeq p.
    Proof.
      unfold decode_to_mem. destruct (decode_header bhl data) as [e|[s b]]; [discriminate|].
      destruct (s <? expect); [discriminate|].
      destruct ((keyMaxSeq p <? s) || (keyMaxSeq p - s <? b)) eqn:E; [discriminate|].
      destruct (decode_loop _ _ _ _ _ _ _) as [st|e st| |]; try discriminate.
      destruct (tm_n st =? Z.of_N b)%Z; [|discriminate]. intros H. injection H as <- <- _ _. lia.
    Qed.

    (* ... and the recovery step built on it: db.seq moves to first seq + count *)
    Corollary recover_step_group groups seq dbseq strict d hs :
      Forall (rec_ok p) (concat groups) -> seq < 2 ^ 64 -> dbseq <= seq ->
      N.of_nat (length (concat groups)) < 2 ^ 32 -> lenN (enc_recs p (concat groups)) < 2 ^ 59 ->
      seq + N.of_nat (length (concat groups)) <= keyMaxSeq p ->
      recover_step p bhl mc mp strict (group_record (group_of p groups) seq) dbseq d hs =
      match putmem_group p mc mp (group_of p groups) seq d hs with
      | PmOk d' hs' => RsOk d' hs' (u64 (seq + N.of_nat (length (concat groups))))
      | PmPanic => RsPanic
      | PmFuel => RsFuel
      end.
    Proof.
      intros Hok Hs Hd Hn Hl Hr. unfold recover_step. rewrite replay_equals_live by assumption.
      replace (seq <? dbseq) with false by lia.
      destruct (putmem_group p mc mp (group_of p groups) seq d hs); reflexivity.
    Qed.

    (* the live path writes that record: write_group's journal record, replayed at the db.seq write_group
       started from, gives write_group's memdb; db.seq becomes first seq + count, which is one above the db.seq
       write_group leaves (the last sequence number used) *)
    Corollary write_then_recover groups dbseq strict d hs record d' hs' dbseq' :
      Forall (rec_ok p) (concat groups) -> dbseq + 1 < 2 ^ 64 ->
      N.of_nat (length (concat groups)) < 2 ^ 32 -> lenN (enc_recs p (concat groups)) < 2 ^ 59 ->
      dbseq + 1 + N.of_nat (length (concat groups)) <= keyMaxSeq p ->
      write_group p mc mp dbseq (group_of p groups) d hs = WgOk record d' hs' dbseq' ->
      recover_step p bhl mc mp strict record dbseq d hs = RsOk d' hs' (u64 (dbseq' + 1)).
    Proof.
      intros Hok Hs Hn Hl Hr. unfold write_group. rewrite u64_small by exact Hs.
      destruct (putmem_group p mc mp (group_of p groups) (dbseq + 1) d hs) as [d1 hs1| |] eqn:E; try discriminate.
      intros H. injection H as <- <- <- <-.
      rewrite recover_step_group by (try assumption; lia). rewrite E. f_equal.
      rewrite (group_len p). rewrite u64_idem_l. f_equal. lia.
    Qed.
  End Mem.
End Replay.
