(* Codec/JournalReaderProofs.v — the reader model factors through the block parser and the
   record assembler:   jread_log strict ck b = assemble strict AIdle (stream_events ck b)
   for every byte string b (hence it is total: never Panic, never OutOfFuel). *)
From GL Require Import Codec.JournalSpec Codec.JournalLemmas.
From Coq Require Import Lia.

Section ReaderProofs.
  Variable crc : bytes -> N.
  Variable p : jparams.
  Hypothesis pok : jparams_ok p.

  Lemma parse_rest_fuel ck f1 : forall f2 rest,
    (length rest <= f1)%nat -> (length rest <= f2)%nat ->
    parse_rest crc p ck f1 rest = parse_rest crc p ck f2 rest.
  Proof.
    pose proof (hs7 p pok) as H7.
    induction f1 as [|f1 IH]; intros f2 rest H1 H2.
    - destruct rest; [|cbn in H1; lia]. destruct f2; cbn [parse_rest]; [reflexivity|].
      replace (lenN (@nil N) <? hs p) with true by (rewrite lenN_nil; lia). reflexivity.
    - destruct f2 as [|f2].
      + destruct rest; [|cbn in H2; lia]. cbn [parse_rest].
        replace (lenN (@nil N) <? hs p) with true by (rewrite lenN_nil; lia). reflexivity.
      + cbn [parse_rest]. destruct (lenN rest <? hs p) eqn:E; [reflexivity|].
        repeat match goal with |- (if ?c then _ else _) = _ => destruct c; [reflexivity|] end.
        f_equal. apply IH; rewrite <- Nat2N.id, <- (Nat2N.id (length (dropN _ _)));
          fold (lenN (dropN (hs p + le_decode (takeN 2 (dropN 4 rest))) rest));
          rewrite lenN_dropN; unfold lenN in *; lia.
  Qed.

  Lemma parse_from_fuel ck f rest :
    (length rest <= f)%nat -> parse_rest crc p ck f rest = parse_from crc p ck rest.
  Proof. intros. unfold parse_from. apply parse_rest_fuel; lia. Qed.

  Lemma parse_from_short ck rest : lenN rest < hs p -> parse_from crc p ck rest = [].
  Proof.
    intros H. unfold parse_from. destruct (length rest); cbn [parse_rest]; [reflexivity|].
    replace (lenN rest <? hs p) with true by lia. reflexivity.
  Qed.

  Lemma blocks_fuel f1 : forall f2 b,
    (length b <= f1)%nat -> (length b <= f2)%nat -> blocks p f1 b = blocks p f2 b.
  Proof.
    pose proof (hs_lt_bs p pok) as Hb.
    induction f1 as [|f1 IH]; intros f2 b H1 H2.
    - destruct b; [|cbn in H1; lia]. destruct f2; reflexivity.
    - destruct f2 as [|f2].
      + destruct b; [|cbn in H2; lia]. reflexivity.
      + cbn [blocks]. destruct b as [|x b]; [reflexivity|]. f_equal.
        assert (L : lenN (dropN (bs p) (x :: b)) <= lenN (x :: b) - 1)
          by (rewrite lenN_dropN; lia).
        unfold lenN in L. cbn [length] in *. apply IH; lia.
  Qed.

  Lemma stream_blocks_cons b : b <> [] ->
    stream_blocks p b = takeN (bs p) b :: stream_blocks p (dropN (bs p) b).
  Proof.
    pose proof (hs_lt_bs p pok) as Hb.
    intros H. unfold stream_blocks. destruct b as [|x b]; [congruence|].
    cbn [length blocks]. f_equal. apply blocks_fuel; [|lia].
    assert (L : lenN (dropN (bs p) (x :: b)) <= lenN (x :: b) - 1) by (rewrite lenN_dropN; lia).
    unfold lenN in L. cbn [length] in *. lia.
  Qed.

  Lemma stream_events_cons ck b : b <> [] ->
    stream_events crc p ck b =
    parse_from crc p ck (takeN (bs p) b) ++ stream_events crc p ck (dropN (bs p) b).
  Proof. intros H. unfold stream_events. rewrite stream_blocks_cons by exact H. reflexivity. Qed.

  Lemma stream_events_nil ck : stream_events crc p ck [] = [].
  Proof. reflexivity. Qed.

  Variable strict ck : bool.

  Definition cur_blk (s : rstate) : bytes := takeN (r_n s) (r_buf s).
  Definition rest_of (s : rstate) : bytes := dropN (r_j s) (cur_blk s).

  Definition RInv (s : rstate) : Prop :=
    lenN (r_buf s) = bs p /\ r_n s <= bs p /\ r_j s <= r_n s /\ r_err s = ENone /\
    (r_n s = 0 \/ r_n s = bs p \/ r_inp s = []).

  Definition evs_of (s : rstate) : list bev :=
    parse_from crc p ck (rest_of s) ++ stream_events crc p ck (r_inp s).

  Lemma lenN_cur_blk s : RInv s -> lenN (cur_blk s) = r_n s.
  Proof. intros (H1 & H2 & _). unfold cur_blk. rewrite lenN_takeN. lia. Qed.

  Lemma lenN_rest_of s : RInv s -> lenN (rest_of s) = r_n s - r_j s.
  Proof. intros H. unfold rest_of. rewrite lenN_dropN, lenN_cur_blk by exact H. reflexivity. Qed.

  (* a window of the buffer inside the valid part of the block, relative to position j *)
  Lemma win s a b o len :
    RInv s -> a = r_j s + o -> b = r_j s + o + len -> b <= r_n s ->
    slice (r_buf s) a b = Some (takeN len (dropN o (rest_of s))).
  Proof.
    intros (H1 & H2 & H3 & _) -> -> Hb.
    rewrite slice_some by lia. f_equal.
    unfold rest_of, cur_blk. rewrite dropN_dropN.
    replace (r_j s + o + len - (r_j s + o)) with (r_j s + o + len - (o + r_j s)) by lia.
    replace len with (r_j s + o + len - (o + r_j s)) at 2 by lia.
    replace (r_j s + o) with (o + r_j s) by lia.
    symmetry. apply window_prefix. lia.
  Qed.

  Lemma nth_takeN (d : N) k n (l : bytes) : (k < N.to_nat n)%nat -> nth k (takeN n l) d = nth k l d.
  Proof.
    unfold takeN. remember (N.to_nat n) as m. clear. revert k l.
    induction m as [|m IH]; intros k l H; [lia|].
    destruct l as [|x l]; [destruct k; reflexivity|]. cbn [firstn]. destruct k; [reflexivity|].
    cbn [nth]. apply IH. lia.
  Qed.

  Lemma win_index s o :
    RInv s -> r_j s + o < r_n s ->
    index (r_buf s) (r_j s + o) = Some (nth (N.to_nat o) (rest_of s) 0).
  Proof.
    intros (H1 & H2 & H3 & _) Hb.
    rewrite (index_some 0) by lia. f_equal.
    unfold rest_of, cur_blk. rewrite nth_dropN, nth_takeN by lia. f_equal. lia.
  Qed.

  (* what nextChunk returns for the head event of the current block *)
  Definition nc_of_event (first : bool) (s : rstate) (ev : bev) : ncres :=
    match ev with
    | BBad r sz => corrupt strict (set_ij s (r_n s) (r_n s)) sz r false
    | BChunk c =>
        let i' := r_j s + hs p in
        let j' := r_j s + hs p + lenN (c_data c) in
        if first && negb (c_type c =? tFull p) && negb (c_type c =? tFirst p)
        then corrupt strict (set_ij s j' j') ((j' - i') + hs p) R_orphan true
        else NCOk {| r_inp := r_inp s; r_buf := r_buf s; r_i := i'; r_j := j'; r_n := r_n s;
                     r_last := (c_type c =? tFull p) || (c_type c =? tLast p);
                     r_err := r_err s |}
    end.

  Lemma nc_inblock f first s :
    RInv s -> r_j s + hs p <= r_n s ->
    exists ev tl,
      parse_from crc p ck (rest_of s) = ev :: tl /\
      nextChunk crc p strict ck (S f) first s = nc_of_event first s ev /\
      match ev with
      | BBad _ _ => tl = []
      | BChunk c =>
          r_j s + hs p + lenN (c_data c) <= r_n s /\
          c_data c = takeN (lenN (c_data c)) (dropN (hs p) (rest_of s)) /\
          tl = parse_from crc p ck (dropN (hs p + lenN (c_data c)) (rest_of s))
      end.
  Proof.
    intros Inv Hj. pose proof (hs7 p pok) as H7. pose proof (hs_lt_bs p pok) as Hb.
    pose proof (lenN_rest_of s Inv) as Lr.
    pose proof Inv as (I1 & I2 & I3 & I4 & I5).
    cbn [nextChunk].
    replace (r_j s + hs p <=? r_n s) with true by lia.
    rewrite (win s (r_j s + 0) (r_j s + 4) 0 4) by (try exact Inv; lia).
    rewrite (win s (r_j s + 4) (r_j s + 6) 4 2) by (try exact Inv; lia).
    rewrite (win_index s 6) by (try exact Inv; lia).
    rewrite dropN_0.
    change (N.to_nat 6) with 6%nat.
    unfold parse_from.
    destruct (length (rest_of s)) as [|fr] eqn:Efr; [unfold lenN in Lr; lia|].
    cbn [parse_rest]. replace (lenN (rest_of s) <? hs p) with false by lia.
    set (rest := rest_of s) in *.
    set (cks := le_decode (takeN 4 rest)).
    set (len := le_decode (takeN 2 (dropN 4 rest))).
    set (t := nth 6 rest 0).
    replace (r_n s - r_j s) with (lenN rest) by lia.
    destruct ((cks =? 0) && (len =? 0) && (t =? 0)) eqn:Ez.
    { exists (BBad R_zero (lenN rest)), []. repeat split. }
    destruct ((t <? tFull p) || (tLast p <? t)) eqn:Et.
    { exists (BBad R_type (lenN rest)), []. repeat split. }
    destruct (lenN rest <? hs p + len) eqn:Eo.
    { replace (r_n s <? r_j s + hs p + len) with true by lia.
      exists (BBad R_overflow (lenN rest)), []. repeat split. }
    replace (r_n s <? r_j s + hs p + len) with false by lia.
    assert (Ld : lenN (takeN len (dropN (hs p) rest)) = len)
      by (rewrite lenN_takeN, lenN_dropN; lia).
    assert (Lf : (length (dropN (hs p + len) rest) <= fr)%nat).
    { assert (L : lenN (dropN (hs p + len) rest) <= lenN rest - 1) by (rewrite lenN_dropN; lia).
      unfold lenN in L. lia. }
    (* with checksums on, the checksum test comes first; the chunk is accepted the same way *)
    destruct ck; cbn [andb];
      [replace (r_j s + hs p =? 0) with false by lia;
       rewrite (win s (r_j s + hs p - 1) (r_j s + hs p + len) 6 (len + 1)) by (try exact Inv; lia);
       fold rest; cbn [option_map];
       destruct (negb (cks =? cksum crc (takeN (len + 1) (dropN 6 rest)))) eqn:Ec;
       [exists (BBad R_checksum (lenN rest)), []; repeat split|]|];
      (eexists (BChunk _), _; split; [reflexivity|]; cbn [nc_of_event c_type c_data mk];
       rewrite Ld; split; [reflexivity|]; repeat split; try lia; apply parse_rest_fuel; lia).
  Qed.

  (* the state after a well-formed chunk was accepted *)
  Definition adv (s : rstate) (c : chunk) : rstate :=
    {| r_inp := r_inp s; r_buf := r_buf s; r_i := r_j s + hs p;
       r_j := r_j s + hs p + lenN (c_data c); r_n := r_n s;
       r_last := (c_type c =? tFull p) || (c_type c =? tLast p); r_err := r_err s |}.

  Definition same_pos (s1 s2 : rstate) : Prop :=
    r_inp s1 = r_inp s2 /\ r_buf s1 = r_buf s2 /\ r_j s1 = r_j s2 /\ r_n s1 = r_n s2 /\
    r_err s1 = r_err s2.

  Lemma same_pos_inv s1 s2 : same_pos s1 s2 -> RInv s1 -> RInv s2.
  Proof. intros (E1 & E2 & E3 & E4 & E5). unfold RInv. rewrite E1, E2, E3, E4, E5. tauto. Qed.

  Lemma same_pos_evs s1 s2 : same_pos s1 s2 -> evs_of s1 = evs_of s2.
  Proof.
    intros (E1 & E2 & E3 & E4 & E5). unfold evs_of, rest_of, cur_blk. now rewrite E1, E2, E3, E4.
  Qed.

  Definition post (s0 : rstate) (ev : bev) (tl : list bev) : Prop :=
    match ev with
    | BBad _ _ =>
        RInv (set_ij s0 (r_n s0) (r_n s0)) /\ evs_of (set_ij s0 (r_n s0) (r_n s0)) = tl
    | BChunk c =>
        RInv (adv s0 c) /\ evs_of (adv s0 c) = tl /\
        slice (r_buf s0) (r_j s0 + hs p) (r_j s0 + hs p + lenN (c_data c)) = Some (c_data c)
    end.

  Lemma nc_inblock_post f first s :
    RInv s -> r_j s + hs p <= r_n s ->
    exists ev tl,
      evs_of s = ev :: tl /\
      nextChunk crc p strict ck (S f) first s = nc_of_event first s ev /\
      post s ev tl.
  Proof.
    intros Inv Hj. pose proof (hs7 p pok) as H7.
    destruct (nc_inblock f first s Inv Hj) as (ev & tl & E & Enc & Hev).
    pose proof Inv as (I1 & I2 & I3 & I4 & I5).
    exists ev, (tl ++ stream_events crc p ck (r_inp s)). split; [unfold evs_of; rewrite E; reflexivity|].
    split; [exact Enc|]. destruct ev as [c|r sz]; cbn [post].
    - destruct Hev as (Hle & Hd & ->). split; [|split].
      + unfold RInv, adv; cbn. repeat split; try assumption; lia.
      + unfold evs_of, rest_of, cur_blk, adv; cbn. f_equal. f_equal.
        rewrite dropN_dropN. f_equal. lia.
      + rewrite (win s (r_j s + hs p) (r_j s + hs p + lenN (c_data c)) (hs p) (lenN (c_data c)))
          by (try exact Inv; lia).
        f_equal. symmetry. exact Hd.
    - subst tl. split.
      + unfold RInv, set_ij; cbn. repeat split; try assumption; lia.
      + unfold evs_of, rest_of, cur_blk, set_ij; cbn.
        rewrite parse_from_short; [reflexivity|].
        rewrite lenN_dropN, lenN_takeN. lia.
  Qed.

  (* nextChunk calls itself only after reading a non-empty block (Go: the `continue` of its loop).  The call on the
     block just read returns: the block is long enough for a header (a chunk or a corruption comes back) or it is
     a short last block (EOF or a corruption).  Hence fuel F = 2 suffices. *)
  Lemma nc_spec F first s :
    RInv s -> (2 <= F)%nat ->
    (evs_of s = [] /\
     exists s', RInv s' /\ evs_of s' = [] /\
       nextChunk crc p strict ck F first s =
       if negb first then corrupt strict s' 0 R_missing false else NCEof (set_err s' EEOF))
    \/
    (exists s0 ev tl, RInv s0 /\ evs_of s = ev :: tl /\
       nextChunk crc p strict ck F first s = nc_of_event first s0 ev /\ post s0 ev tl).
  Proof.
    intros Inv HF. pose proof (hs7 p pok) as H7. pose proof (hs_lt_bs p pok) as Hb.
    destruct F as [|[|f]]; try lia.
    pose proof Inv as (I1 & I2 & I3 & I4 & I5).
    destruct (r_j s + hs p <=? r_n s) eqn:Ej.
    { right. destruct (nc_inblock_post (S f) first s Inv) as (ev & tl & H); [lia|].
      exists s, ev, tl. tauto. }
    assert (Es : parse_from crc p ck (rest_of s) = []).
    { apply parse_from_short. rewrite lenN_rest_of by exact Inv. lia. }
    cbn [nextChunk]. rewrite Ej.
    destruct ((r_n s <? bs p) && (0 <? r_n s)) eqn:El.
    { left. assert (r_inp s = []) as Ei by (destruct I5 as [?|[?|?]]; [lia|lia|assumption]).
      assert (evs_of s = []) as Ee by (unfold evs_of; rewrite Es, Ei; reflexivity).
      split; [exact Ee|]. exists s. repeat split; assumption. }
    rewrite I1.
    destruct (lenN (takeN (bs p) (r_inp s)) =? 0) eqn:En.
    { left. assert (r_inp s = []) as Ei.
      { rewrite lenN_takeN in En. apply lenN_0. lia. }
      assert (evs_of s = []) as Ee by (unfold evs_of; rewrite Es, Ei; reflexivity).
      split; [exact Ee|]. exists s. repeat split; assumption. }
    set (blk := takeN (bs p) (r_inp s)) in *.
    set (s2 := {| r_inp := dropN (bs p) (r_inp s); r_buf := blk ++ dropN (lenN blk) (r_buf s);
                  r_i := 0; r_j := 0; r_n := lenN blk; r_last := r_last s; r_err := r_err s |}).
    assert (Lb : lenN blk = N.min (bs p) (lenN (r_inp s))) by (unfold blk; apply lenN_takeN).
    assert (Inv2 : RInv s2).
    { unfold RInv, s2; cbn. repeat split; try assumption; try lia.
      - rewrite lenN_app, lenN_dropN. lia.
      - destruct (lenN blk =? bs p) eqn:E; [right; left; lia|].
        right; right. apply dropN_all. lia. }
    assert (Ne : r_inp s <> []) by (intros E; unfold blk in En; rewrite E, lenN_takeN, lenN_nil in En; lia).
    assert (Ev2 : evs_of s2 = evs_of s).
    { unfold evs_of at 2. rewrite Es. cbn [app]. rewrite (stream_events_cons ck _ Ne).
      unfold evs_of, rest_of, cur_blk, s2; cbn.
      rewrite takeN_app_exact by reflexivity. reflexivity. }
    destruct (0 + hs p <=? lenN blk) eqn:E2.
    { right. destruct (nc_inblock_post f first s2 Inv2) as (ev & tl & H); [cbn; lia|].
      exists s2, ev, tl. rewrite <- Ev2. tauto. }
    left. assert (Ei2 : r_inp s2 = []) by (cbn; apply dropN_all; lia).
    assert (Ee2 : evs_of s2 = []).
    { unfold evs_of. rewrite Ei2. rewrite parse_from_short; [reflexivity|].
      rewrite lenN_rest_of by exact Inv2. cbn. lia. }
    split; [rewrite <- Ev2; exact Ee2|]. exists s2. split; [exact Inv2|]. split; [exact Ee2|].
    cbn [nextChunk]. change (r_j s2) with 0. change (r_n s2) with (lenN blk). rewrite E2.
    replace ((lenN blk <? bs p) && (0 <? lenN blk)) with true by lia. reflexivity.
  Qed.

  Lemma corrupt_strict s n r : corrupt true s n r false = NCCorrupt (set_err s ECorrupt) r n.
  Proof. reflexivity. Qed.
  Lemma corrupt_tolerant s n r sk : corrupt false s n r sk = NCSkip s r n.
  Proof. reflexivity. Qed.
  Lemma corrupt_skip st s n r : corrupt st s n r true = NCSkip s r n.
  Proof. unfold corrupt. rewrite andb_false_r. reflexivity. Qed.

  Lemma set_ij_same s i j : r_j s = j -> same_pos (set_ij s i j) s.
  Proof. intros <-. repeat split. Qed.

  Lemma adv_same s c i :
    same_pos (set_ij s i (r_j s + hs p + lenN (c_data c))) (adv s c).
  Proof. repeat split. Qed.

  (* what Next's loop has done when it stops, started in front of the events evs: ds are the drops it reported *)
  Definition loop_post (st : bool) (evs : list bev) (r : list outcome * nextres) : Prop :=
    let '(ds, res) := r in
    match res with
    | NxEof => assemble p st AIdle evs = ds
    | NxErr => assemble p st AIdle evs = ds ++ [Err]
    | NxOk s' =>
        exists s0 c tl, RInv s0 /\ s' = adv s0 c /\ post s0 (BChunk c) tl /\
          is_start_type p (c_type c) = true /\ (length tl < length evs)%nat /\
          assemble p st AIdle evs = ds ++ assemble p st AIdle (BChunk c :: tl)
    | NxPanic | NxFuel => False
    end.

  (* an event that is skipped with the drops d, then the loop from the events behind it *)
  Lemma loop_post_skip st ev evs d ds res :
    assemble p st AIdle (ev :: evs) = d ++ assemble p st AIdle evs ->
    loop_post st evs (ds, res) -> loop_post st (ev :: evs) (d ++ ds, res).
  Proof.
    intros E. unfold loop_post. destruct res as [s'| | | |]; try tauto.
    - intros (s0 & c & tl & H1 & H2 & H3 & H4 & H5 & H6). exists s0, c, tl.
      split; [exact H1|]. split; [exact H2|]. split; [exact H3|]. split; [exact H4|].
      split; [cbn [length]; lia|]. rewrite E, H6, app_assoc. reflexivity.
    - intros H. rewrite E, H. reflexivity.
    - intros H. rewrite E, H, app_assoc. reflexivity.
  Qed.

  Lemma next_loop_ok F : (2 <= F)%nat -> forall fuel s,
    RInv s -> (length (evs_of s) < fuel)%nat -> loop_post strict (evs_of s) (next_loop crc p strict ck F fuel s).
  Proof.
    intros HF. induction fuel as [|fuel IH]; intros s Inv Hf; [lia|].
    cbn [next_loop].
    destruct (nc_spec F true s Inv HF) as [(Ee & s' & Inv' & Ee' & Enc) | (s0 & ev & tl & Inv0 & Ee & Enc & Hpost)].
    - rewrite Enc. cbn [negb loop_post]. rewrite Ee. reflexivity.
    - rewrite Enc, Ee. rewrite Ee in Hf. cbn [length] in Hf. destruct ev as [c|r sz]; cbn [nc_of_event post] in *.
      + destruct Hpost as (Inv1 & Ev1 & Hsl).
        destruct ((c_type c =? tFull p) || (c_type c =? tFirst p)) eqn:Est.
        * replace (true && negb (c_type c =? tFull p) && negb (c_type c =? tFirst p)) with false
            by (destruct (c_type c =? tFull p), (c_type c =? tFirst p); cbn in *; congruence).
          exists s0, c, tl. split; [exact Inv0|]. split; [reflexivity|]. split; [cbn [post]; tauto|].
          split; [exact Est|]. split; [cbn [length]; lia | reflexivity].
        * (* an orphan chunk is skipped *)
          replace (true && negb (c_type c =? tFull p) && negb (c_type c =? tFirst p)) with true
            by (destruct (c_type c =? tFull p), (c_type c =? tFirst p); cbn in *; congruence).
          rewrite corrupt_skip.
          set (s1 := set_ij s0 _ _).
          assert (SP : same_pos s1 (adv s0 c)) by apply adv_same.
          assert (Inv1' : RInv s1) by (apply (same_pos_inv (adv s0 c)); [|exact Inv1]; repeat split).
          assert (Ev1' : evs_of s1 = tl) by (rewrite (same_pos_evs _ _ SP); exact Ev1).
          specialize (IH s1 Inv1'). rewrite Ev1' in IH. specialize (IH ltac:(lia)).
          destruct (next_loop crc p strict ck F fuel s1) as [ds res].
          apply (loop_post_skip _ _ _ [_]); [|exact IH]. cbn [assemble app]. unfold is_start_type. rewrite Est.
          do 2 f_equal. lia.
      + destruct Hpost as (Inv1 & Ev1).
        destruct strict eqn:Estr.
        * rewrite corrupt_strict. cbn [assemble loop_post]. reflexivity.
        * rewrite corrupt_tolerant.
          specialize (IH _ Inv1). rewrite Ev1 in IH. specialize (IH ltac:(lia)).
          destruct (next_loop crc p false ck F fuel _) as [ds res].
          apply (loop_post_skip _ _ _ [_]); [reflexivity|exact IH].
  Qed.

  Definition rd_measure (s : rstate) : nat :=
    (2 * length (evs_of s) + (if r_i s =? r_j s then 0 else 1) + 2)%nat.

  Definition rd_cont (s : rstate) (acc d : bytes) : list outcome :=
    if r_last s then Rec (acc ++ d) :: assemble p strict AIdle (evs_of s)
    else assemble p strict (AIn (acc ++ d)) (evs_of s).

  Lemma read_loop_ok F : (2 <= F)%nat -> forall fuel s acc d,
    RInv s -> slice (r_buf s) (r_i s) (r_j s) = Some d -> (rd_measure s <= fuel)%nat ->
    let '(ds, res) := read_loop crc p strict ck F fuel s acc in
    match res with
    | RdOk x s' =>
        RInv s' /\ (length (evs_of s') <= length (evs_of s))%nat /\
        rd_cont s acc d = ds ++ Rec x :: assemble p strict AIdle (evs_of s')
    | RdUnexpectedEOF s' =>
        RInv s' /\ (length (evs_of s') <= length (evs_of s))%nat /\
        rd_cont s acc d = ds ++ Skipped :: assemble p strict AIdle (evs_of s')
    | RdErr => rd_cont s acc d = ds ++ [Err]
    | RdPanic | RdFuel => False
    end.
  Proof.
    intros HF. induction fuel as [|fuel IH]; intros s acc d Inv Hsl Hm; [unfold rd_measure in Hm; lia|].
    cbn [read_loop]. unfold rd_measure in Hm.
    destruct (r_i s =? r_j s) eqn:Eij.
    - assert (d = []) as -> by (apply slice_len in Hsl; apply lenN_0; lia).
      unfold rd_cont. rewrite app_nil_r.
      destruct (r_last s) eqn:El.
      { split; [exact Inv|]. split; [lia | reflexivity]. }
      destruct (nc_spec F false s Inv HF) as [(Ee & s' & Inv' & Ee' & Enc) | (s0 & ev & tl & Inv0 & Ee & Enc & Hpost)].
      + rewrite Enc. cbn [negb]. rewrite Ee. destruct strict eqn:Estr.
        * rewrite corrupt_strict. reflexivity.
        * rewrite corrupt_tolerant. split; [exact Inv'|]. split; [rewrite Ee'; cbn; lia|].
          rewrite Ee'. reflexivity.
      + rewrite Enc, Ee. destruct ev as [c|r sz]; cbn [nc_of_event post] in *.
        * destruct Hpost as (Inv1 & Ev1 & Hsl1). cbn [andb]. fold (adv s0 c).
          specialize (IH (adv s0 c) acc (c_data c) Inv1 Hsl1).
          rewrite Ee in Hm. cbn [length] in Hm.
          assert (Hm1 : (rd_measure (adv s0 c) <= fuel)%nat).
          { unfold rd_measure. rewrite Ev1. destruct (r_i (adv s0 c) =? r_j (adv s0 c)); lia. }
          specialize (IH Hm1).
          destruct (read_loop crc p strict ck F fuel (adv s0 c) acc) as [ds res].
          unfold rd_cont in IH. rewrite Ev1 in IH. change (r_last (adv s0 c)) with (is_last_type p (c_type c)) in IH.
          cbn [assemble length].
          destruct res; try contradiction.
          -- destruct IH as (H1 & H2 & H3). split; [exact H1|]. split; [lia | exact H3].
          -- destruct IH as (H1 & H2 & H3). split; [exact H1|]. split; [lia | exact H3].
          -- exact IH.
        * destruct Hpost as (Inv1 & Ev1). destruct strict eqn:Estr.
          -- rewrite corrupt_strict. reflexivity.
          -- rewrite corrupt_tolerant. split; [exact Inv1|]. split; [rewrite Ev1; cbn; lia|].
             rewrite Ev1. reflexivity.
    - rewrite Hsl.
      set (s1 := set_ij s (r_j s) (r_j s)).
      assert (SP : same_pos s1 s) by (apply set_ij_same; reflexivity).
      assert (Inv1 : RInv s1) by (apply (same_pos_inv s); [|exact Inv]; repeat split).
      assert (Ev1 : evs_of s1 = evs_of s) by (apply same_pos_evs; exact SP).
      assert (Hsl1 : slice (r_buf s1) (r_i s1) (r_j s1) = Some []).
      { cbn. apply slice_len in Hsl. rewrite slice_some by lia.
        replace (r_j s - r_j s) with 0 by lia. reflexivity. }
      specialize (IH s1 (acc ++ d) [] Inv1 Hsl1).
      assert (Hm1 : (rd_measure s1 <= fuel)%nat).
      { unfold rd_measure. rewrite Ev1. cbn [s1 set_ij r_i r_j]. rewrite N.eqb_refl. lia. }
      specialize (IH Hm1).
      destruct (read_loop crc p strict ck F fuel s1 (acc ++ d)) as [ds res].
      unfold rd_cont in *. rewrite Ev1 in IH. change (r_last s1) with (r_last s) in IH.
      rewrite app_nil_r in IH. exact IH.
  Qed.

  Lemma jloop_ok F : forall fuel s,
    RInv s -> (length (evs_of s) < fuel)%nat -> (2 * length (evs_of s) + 3 <= F)%nat ->
    jloop crc p strict ck F fuel s = assemble p strict AIdle (evs_of s).
  Proof.
    induction fuel as [|fuel IH]; intros s Inv Hf HF; [lia|].
    cbn [jloop]. unfold rNext. pose proof Inv as (_ & _ & _ & Ie & _). rewrite Ie.
    set (s1 := set_ij s (r_j s) (r_j s)).
    assert (SP : same_pos s1 s) by (apply set_ij_same; reflexivity).
    assert (Inv1 : RInv s1) by (apply (same_pos_inv s); [|exact Inv]; repeat split).
    assert (Ev1 : evs_of s1 = evs_of s) by (apply same_pos_evs; exact SP).
    pose proof (next_loop_ok F ltac:(lia) F s1 Inv1) as HN. rewrite Ev1 in HN.
    specialize (HN ltac:(lia)). unfold loop_post in HN.
    destruct (next_loop crc p strict ck F F s1) as [ds res].
    destruct res as [s'| | | |]; try contradiction.
    - destruct HN as (s0 & c & tl & Inv0 & -> & Hpost & Hst & Hlen & Hasm).
      cbn [post] in Hpost. destruct Hpost as (Inv' & Ev' & Hsl).
      pose proof (read_loop_ok F ltac:(lia) F (adv s0 c) [] (c_data c) Inv' Hsl) as HR.
      assert (Hm : (rd_measure (adv s0 c) <= F)%nat).
      { unfold rd_measure. rewrite Ev'. destruct (r_i (adv s0 c) =? r_j (adv s0 c)); lia. }
      specialize (HR Hm).
      destruct (read_loop crc p strict ck F F (adv s0 c) []) as [ds2 res2].
      rewrite Hasm. f_equal. cbn [assemble]. rewrite Hst.
      unfold rd_cont in HR. rewrite Ev' in HR. cbn [app] in HR.
      change (r_last (adv s0 c)) with (is_last_type p (c_type c)) in HR.
      destruct res2 as [x s2|s2| | |]; try contradiction.
      + destruct HR as (Inv2 & Hl2 & HR). rewrite HR. f_equal. f_equal.
        apply IH; [exact Inv2 | lia | lia].
      + destruct HR as (Inv2 & Hl2 & HR). rewrite HR. f_equal. f_equal.
        apply IH; [exact Inv2 | lia | lia].
      + symmetry; exact HR.
    - rewrite HN. apply app_nil_r.
    - rewrite HN. reflexivity.
  Qed.

  Lemma parse_rest_length f : forall rest, (length (parse_rest crc p ck f rest) <= length rest)%nat.
  Proof.
    pose proof (hs7 p pok) as H7.
    induction f as [|f IH]; intros rest; cbn [parse_rest]; [cbn; lia|].
    destruct (lenN rest <? hs p) eqn:E; [cbn; lia|].
    assert (1 <= length rest)%nat by (unfold lenN in E; lia).
    repeat match goal with |- (length (if ?c then _ else _) <= _)%nat => destruct c; [cbn [length]; lia|] end.
    cbn [length]. specialize (IH (dropN (hs p + le_decode (takeN 2 (dropN 4 rest))) rest)).
    assert (L : lenN (dropN (hs p + le_decode (takeN 2 (dropN 4 rest))) rest) <= lenN rest - 1)
      by (rewrite lenN_dropN; lia).
    unfold lenN in L. lia.
  Qed.

  Lemma blocks_events_length f : forall b,
    (length (flat_map (parse_from crc p ck) (blocks p f b)) <= length b)%nat.
  Proof.
    induction f as [|f IH]; intros b; cbn [blocks flat_map]; [cbn; lia|].
    destruct b as [|x b]; [cbn; lia|]. cbn [flat_map]. rewrite app_length.
    specialize (IH (dropN (bs p) (x :: b))).
    pose proof (parse_rest_length (length (takeN (bs p) (x :: b))) (takeN (bs p) (x :: b))) as H1.
    assert (HL : length (x :: b) = (length (takeN (bs p) (x :: b)) + length (dropN (bs p) (x :: b)))%nat)
      by (rewrite <- app_length, takeN_dropN; reflexivity).
    unfold parse_from at 1. lia.
  Qed.

  Lemma stream_events_length b : (length (stream_events crc p ck b) <= length b)%nat.
  Proof. apply blocks_events_length. Qed.

  Theorem reader_factor b :
    jread_log crc p strict ck b = assemble p strict AIdle (stream_events crc p ck b).
  Proof.
    pose proof (hs7 p pok) as H7. pose proof (hs_lt_bs p pok) as Hb.
    unfold jread_log.
    assert (Inv : RInv (r_init p b)).
    { unfold RInv, r_init; cbn. rewrite lenN_zeros. repeat split; try lia. }
    assert (Ev : evs_of (r_init p b) = stream_events crc p ck b).
    { unfold evs_of, rest_of, cur_blk, r_init; cbn [r_n r_j r_buf r_inp].
      rewrite parse_from_short; [reflexivity|]. rewrite lenN_dropN, lenN_takeN. lia. }
    pose proof (stream_events_length b) as HL.
    rewrite jloop_ok; [rewrite Ev; reflexivity | exact Inv | |]; rewrite Ev; unfold jfuel; lia.
  Qed.
End ReaderProofs.
