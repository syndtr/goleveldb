(* Codec/TableDamageStrictProofs.v — the STRICT table iterator over a reader some of whose block
   fetches fail with Corrupt: every call either behaves exactly as on the intact reader (same
   result, same iterator state) or returns false with the iterator's error set, after which every
   call returns false.  So a run on the damaged reader observes a prefix of the observations of
   the intact reader followed by "false" only — never a pair the intact table would not yield. *)
From GL Require Import Codec.Table Codec.TableDamageProofs.

Local Open Scope N_scope.

Section Strict.
  Variable c : comparer.
  Variable rd rd' : treader.
  Hypothesis deg : degraded rd rd'.

  Definition halted (r : bool * titer) : Prop := fst r = false /\ ti_has_err (snd r) = true.

  (* the data iterator of an unreadable block, in an iterator that has not failed yet *)
  Definition poisoned (t : titer) : Prop :=
    ti_data t = Some (DEmpty ErrCorrupt) /\ ti_strict t = true /\ ti_err t = None.

  Lemma index_get_deg t :
    index_get c rd' t = index_get c rd t \/ index_get c rd' t = Some (DEmpty ErrCorrupt).
  Proof.
    destruct deg as (_ & _ & _ & Hf). unfold index_get.
    destruct (negb (bi_valid (ti_index t))); [left; reflexivity|].
    destruct (decode_bh (bi_value (ti_index t))) as [h n| |]; [|left; reflexivity|left; reflexivity].
    destruct (Hf h) as [E|E]; rewrite E; [left; reflexivity | right; reflexivity].
  Qed.

  Lemma set_data_deg t : ti_strict t = true -> ti_err t = None ->
    ti_set_data c rd' t = ti_set_data c rd t \/ poisoned (ti_set_data c rd' t).
  Proof.
    intros Hs He. unfold ti_set_data. destruct (index_get_deg t) as [E|E]; rewrite E.
    - left. reflexivity.
    - right. repeat split; assumption.
  Qed.

  Lemma data_err_poisoned t e0 : ti_strict t = true ->
    exists t2, ti_data_err (ti_with t (ti_index t) (Some (DEmpty ErrCorrupt)) e0) (DEmpty ErrCorrupt) = Some t2 /\
               ti_has_err t2 = true.
  Proof.
    intros Hs. unfold ti_data_err. cbn [d_err ti_with ti_strict]. rewrite Hs. cbn [orb].
    eexists. split; reflexivity.
  Qed.

  Lemma enter_poisoned pos self t : poisoned t -> halted (ti_enter pos self t).
  Proof.
    intros (Ed & Hs & He). unfold ti_enter. rewrite Ed. cbn [d_lift].
    destruct (data_err_poisoned t (ti_err t) Hs) as (t2 & E & H2). rewrite E. split; [reflexivity | exact H2].
  Qed.

  Lemma next_f_poisoned fu t : poisoned t -> halted (ti_next_f c rd' fu t).
  Proof.
    intros (Ed & Hs & He). destruct fu as [|fu]; cbn [ti_next_f].
    - split; reflexivity.
    - unfold ti_has_err. rewrite He, Ed. cbn [d_lift].
      destruct (data_err_poisoned t None Hs) as (t2 & E & H2). rewrite E. split; [reflexivity | exact H2].
  Qed.

  (* "same as the intact reader, or halted" *)
  Definition sim (r' r : bool * titer) : Prop := r' = r \/ halted r'.

  Lemma sim_refl r : sim r r.
  Proof. left. reflexivity. Qed.

  (* the iterator was opened with the strict flag *)
  Definition good (t : titer) : Prop := ti_strict t = true.

  Lemma no_err t : ti_has_err t = false -> ti_err t = None.
  Proof. unfold ti_has_err. destruct (ti_err t); [discriminate | reflexivity]. Qed.

  Lemma advance_sim self' self t : good t -> ti_err t = None ->
    (forall t0, good t0 -> sim (self' t0) (self t0)) -> (forall t0, poisoned t0 -> halted (self' t0)) ->
    sim (ti_advance c rd' self' t) (ti_advance c rd self t).
  Proof.
    intros Hg He Hsim Hp. unfold ti_advance.
    destruct (bi_next (ti_index t)) as [ok ix]. destruct (negb ok); [apply sim_refl|].
    set (t1 := ti_with t ix (ti_data t) (ti_err t)).
    destruct (set_data_deg t1 Hg He) as [E|P].
    - rewrite E. apply Hsim. exact Hg.
    - right. apply Hp. exact P.
  Qed.

  Lemma enter_sim pos self' self t' t : good t -> ti_err t = None ->
    (t' = t \/ poisoned t') ->
    (forall t0, good t0 -> ti_err t0 = None -> sim (self' t0) (self t0)) ->
    sim (ti_enter pos self' t') (ti_enter pos self t).
  Proof.
    intros Hg He [-> | P] Hsim; [|right; apply enter_poisoned; exact P].
    unfold ti_enter. destruct (ti_data t) as [d|]; [|apply sim_refl].
    destruct (d_lift pos d) as [ok2 d']. destruct ok2; [apply sim_refl|].
    destruct (ti_data_err (ti_with t (ti_index t) (Some d') (ti_err t)) d'); [apply sim_refl|].
    apply Hsim; [exact Hg | exact He].
  Qed.

  Lemma next_f_sim : forall fu t, good t -> sim (ti_next_f c rd' fu t) (ti_next_f c rd fu t).
  Proof.
    induction fu as [|fu IH]; intros t Hg; [apply sim_refl|]. rewrite !ti_next_f_S.
    destruct (ti_has_err t) eqn:Eh; [apply sim_refl|]. pose proof (no_err t Eh) as He.
    assert (Ha : forall t0, good t0 -> ti_err t0 = None ->
              sim (ti_advance c rd' (ti_next_f c rd' fu) t0) (ti_advance c rd (ti_next_f c rd fu) t0)).
    { intros t0 H0 E0. apply advance_sim; [exact H0 | exact E0 | exact IH | apply next_f_poisoned]. }
    destruct (ti_data t); [|exact (Ha t Hg He)].
    apply enter_sim; [exact Hg | exact He | left; reflexivity | exact Ha].
  Qed.

  Lemma retreat_sim self' self t : good t -> ti_err t = None ->
    (forall t0, good t0 -> sim (self' t0) (self t0)) ->
    sim (ti_retreat c rd' self' t) (ti_retreat c rd self t).
  Proof.
    intros Hg He Hsim. unfold ti_retreat.
    destruct (bi_prev (ti_index t)) as [ok ix]. destruct (negb ok); [apply sim_refl|].
    set (t1 := ti_with t ix (ti_data t) (ti_err t)).
    apply (enter_sim bi_last self' self (ti_set_data c rd' t1) (ti_set_data c rd t1));
      [exact Hg | exact He | apply set_data_deg; assumption | intros t0 H0 _; exact (Hsim t0 H0)].
  Qed.

  Lemma prev_f_sim : forall fu t, good t -> sim (ti_prev_f c rd' fu t) (ti_prev_f c rd fu t).
  Proof.
    induction fu as [|fu IH]; intros t Hg; [apply sim_refl|]. rewrite !ti_prev_f_S.
    destruct (ti_has_err t) eqn:Eh; [apply sim_refl|]. pose proof (no_err t Eh) as He.
    assert (Hr : forall t0, good t0 -> ti_err t0 = None ->
              sim (ti_retreat c rd' (ti_prev_f c rd' fu) t0) (ti_retreat c rd (ti_prev_f c rd fu) t0)).
    { intros t0 H0 E0. apply retreat_sim; [exact H0 | exact E0 | exact IH]. }
    destruct (ti_data t); [|exact (Hr t Hg He)].
    apply enter_sim; [exact Hg | exact He | left; reflexivity | exact Hr].
  Qed.

  Lemma move_sim o cont' cont t : good t ->
    (forall t1' t1, good t1 -> ti_err t1 = None -> t1' = t1 \/ poisoned t1' -> sim (cont' t1') (cont t1)) ->
    sim (ti_move c rd' o cont' t) (ti_move c rd o cont t).
  Proof.
    intros Hg Hc. unfold ti_move. destruct (ti_has_err t) eqn:Eh; [apply sim_refl|].
    pose proof (no_err t Eh) as He.
    destruct (bi_step c (ti_index t) o) as [ok ix]. destruct (negb ok); [apply sim_refl|].
    apply Hc; [exact Hg | exact He | apply set_data_deg; assumption].
  Qed.

  Lemma step_sim t o : good t -> sim (ti_step c rd' t o) (ti_step c rd t o).
  Proof.
    intros Hg. rewrite !ti_step_move. destruct o as [| |k| |].
    - apply move_sim; [exact Hg|]. unfold ti_next. intros t1' t1 H1 _ [-> | P].
      + apply next_f_sim. exact H1.
      + right. apply next_f_poisoned. exact P.
    - apply move_sim; [exact Hg|]. intros t1' t1 H1 E1 D. apply enter_sim; [exact H1 | exact E1 | exact D |].
      intros t2 H2 _. apply prev_f_sim. exact H2.
    - apply move_sim; [exact Hg|]. intros t1' t1 H1 E1 D. apply enter_sim; [exact H1 | exact E1 | exact D |].
      intros t2 H2 _. apply next_f_sim. exact H2.
    - apply next_f_sim. exact Hg.
    - apply prev_f_sim. exact Hg.
  Qed.

  (* a failed iterator answers false to everything *)
  Lemma step_halted rdx t o : ti_has_err t = true -> ti_step c rdx t o = (false, t).
  Proof.
    intros H. destruct o as [| |k| |]; cbn [ti_step].
    - unfold ti_first. rewrite H. reflexivity.
    - unfold ti_last. rewrite H. reflexivity.
    - unfold ti_seek. rewrite H. reflexivity.
    - unfold ti_next, ti_fuel. cbn [ti_next_f]. rewrite H. reflexivity.
    - unfold ti_prev, ti_fuel. cbn [ti_prev_f]. rewrite H. reflexivity.
  Qed.

  Lemma run_halted rdx ops : forall t, ti_has_err t = true ->
    fst (ti_run c rdx t ops) = map (fun _ => None) ops.
  Proof.
    induction ops as [|o r IH]; intros t H; cbn [ti_run map]; [reflexivity|].
    rewrite (step_halted rdx t o H). specialize (IH t H). destruct (ti_run c rdx t r) as [l tf]. cbn [fst] in *.
    rewrite IH. reflexivity.
  Qed.

  (* every method keeps the strict flag *)
  Lemma step_good rdx t o : ti_strict (snd (ti_step c rdx t o)) = ti_strict t.
  Proof.
    assert (H : tinv (fun _ => True) (fun _ => True) t (snd (ti_step c rdx t o))).
    { apply ti_step_inv; try (intros; exact I). repeat split. }
    apply H.
  Qed.

  (* runs: the damaged reader's observations are a prefix of the intact reader's, then only false *)
  Theorem strict_run_degraded ops : forall t, good t ->
    exists n, firstn n (fst (ti_run c rd' t ops)) = firstn n (fst (ti_run c rd t ops)) /\
              skipn n (fst (ti_run c rd' t ops)) = map (fun _ => None) (skipn n ops).
  Proof.
    induction ops as [|o r IH]; intros t Hg.
    - exists 0%nat. split; reflexivity.
    - cbn [ti_run]. destruct (step_sim t o Hg) as [E | [Hf Hh]].
      + rewrite E. destruct (ti_step c rd t o) as [ok t1] eqn:Es.
        assert (Hg1 : good t1).
        { unfold good. pose proof (step_good rd t o) as P. rewrite Es in P. cbn [snd] in P. rewrite P. exact Hg. }
        destruct (IH t1 Hg1) as (n & H1 & H2).
        destruct (ti_run c rd' t1 r) as [l' tf']. destruct (ti_run c rd t1 r) as [l tf]. cbn [fst] in *.
        exists (S n). cbn [firstn skipn]. split; [f_equal; exact H1 | exact H2].
      + destruct (ti_step c rd' t o) as [ok t1]. cbn [fst snd] in Hf, Hh. subst ok.
        pose proof (run_halted rd' r t1 Hh) as Hr.
        destruct (ti_run c rd' t1 r) as [l' tf']. cbn [fst] in *.
        exists 0%nat. cbn [firstn skipn map]. split; [reflexivity | rewrite Hr; reflexivity].
  Qed.
End Strict.
