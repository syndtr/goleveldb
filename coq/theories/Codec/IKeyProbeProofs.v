(* Codec/IKeyProbeProofs.v — where the lookup probe sorts, for an injective comparer: the statements of
   Codec/IKeyProbePreProofs.v with "the same user key" read as identity of bytes.  The entries strictly before
   the probe are exactly those of smaller user keys and the entries of k newer than s, so the first entry at or
   after the probe that carries user key k is the newest entry of k that is not newer than s (DB.Get's
   positioning rule). *)
From GL Require Import Base.OrderPre Codec.IKey Codec.IKeyProbePreProofs.
From Coq Require Import List.
Import ListNotations.
Local Open Scope N_scope.

Section Probe.
  Variable c : comparer.
  Hypothesis ok : comparer_ok c.
  Variable p : kparams.
  Hypothesis pok : kparams_ok p.

  (* which entries sort strictly before the probe (k, s, Seek) *)
  Lemma probe_precedes_iff e s' t k s : num e = pack s' t -> t <= keyTypeSeek p ->
    icmp c e (probe p k s) = Lt <-> (cmp c (uk e) k = Lt \/ (uk e = k /\ s < s')).
  Proof.
    intros Hn Ht. rewrite (pprobe_precedes_iff c p pok e s' t k s Hn Ht). unfold keq.
    rewrite (cmp_eq c ok). reflexivity.
  Qed.

  (* entries of a run, each with a well-formed trailer *)
  Definition trailer_ok (e : ikey) : Prop := exists s' t, num e = pack s' t /\ t <= keyTypeSeek p.

  Definition seq_of (e : ikey) : N := num e / 256.

  (* strictly ascending in the internal order, as tables, the memdb and merged iterators present their entries *)
  Fixpoint sorted (l : list ikey) : Prop :=
    match l with
    | [] => True
    | a :: r => (match r with [] => True | b :: _ => icmp c a b = Lt end) /\ sorted r
    end.

  Lemma sorted_app_lt l1 l2 : sorted (l1 ++ l2) -> forall x y, In x l1 -> In y l2 -> icmp c x y = Lt.
  Proof.
    induction l1 as [|a l1 IH]; cbn [app]; intros H x y Hx Hy; [destruct Hx|].
    destruct Hx as [<-|Hx].
    - apply (psorted_head_lt c (comparer_ok_pre c ok) a (l1 ++ l2) H). apply in_or_app. right; exact Hy.
    - apply IH; try assumption. destruct H as [_ H]. exact H.
  Qed.

  (* Split a sorted run at the probe.  Everything before the split is a smaller user key or an entry of k newer
     than s; the first entry after the split, if it carries k, is the newest entry of k with seq <= s. *)
  Theorem probe_lands_on_newest_visible l1 e l2 k s :
    sorted (l1 ++ e :: l2) ->
    (forall x, In x (l1 ++ e :: l2) -> trailer_ok x) ->
    (forall x, In x l1 -> icmp c x (probe p k s) = Lt) ->
    icmp c e (probe p k s) <> Lt ->
    (* 1. nothing before the split is an entry of k visible at s *)
    (forall x, In x l1 -> ~ (uk x = k /\ seq_of x <= s)) /\
    (* 2. if e carries k then it is visible at s and no visible entry of k is newer *)
    (uk e = k -> seq_of e <= s /\
       forall x, In x (l1 ++ e :: l2) -> uk x = k -> seq_of x <= s -> seq_of x <= seq_of e) /\
    (* 3. if e does not carry k then k has no entry visible at s anywhere in the run *)
    (uk e <> k -> forall x, In x (l1 ++ e :: l2) -> ~ (uk x = k /\ seq_of x <= s)).
  Proof.
    intros Hs Ht Hbefore He.
    pose proof (pprobe_lands_on_newest_visible c (comparer_ok_pre c ok) p pok l1 e l2 k s Hs Ht Hbefore He) as H.
    unfold keq in H. setoid_rewrite (cmp_eq c ok) in H. exact H.
  Qed.
End Probe.
