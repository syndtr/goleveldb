(* Codec/BatchCutProofs.v — the batch decoder (Codec/Batch.v) off the happy path: on a CUT encoding
   (exactly which error, after exactly which records), on ARBITRARY bytes (total), and a witness of what the
   decoder did before fix d912a49 (decode_loop_old: a loop that never advances). *)
From GL Require Import Base.VarintProofs Codec.Batch Codec.BatchProofs.
From Coq Require Import Lia.
Open Scope N_scope.

Lemma takeN_cons {A} n (x : A) l : 1 <= n -> takeN n (x :: l) = x :: takeN (n - 1) l.
Proof.
  unfold takeN. intros H. destruct (N.to_nat n) as [|m] eqn:E; [lia|].
  cbn [firstn]. f_equal. f_equal. lia.
Qed.

Section Cut.
  Variable p : kparams.
  Hypothesis pok : kparams_ok p.

  (* the error decodeBatch reports when a record is cut after m of its bytes (0 < m < its length): before
     the end of the key it is the key length that does not fit, after it the value length *)
  Definition cut_err (r : brec) (m : N) : berr :=
    match r with (kt, k, v) =>
      if m <? 1 + lenN (put_uvarint (lenN k)) + lenN k then EKeyLen else EValLen
    end.

  Lemma decode_cut A (fn : A -> Z -> bidx -> cbres A) pre r m f i a :
    rec_ok p r -> 0 < m -> m < lenN (enc_rec p r) -> lenN pre + lenN (enc_rec p r) < 2 ^ 63 ->
    decode_loop p (S f) (pre ++ takeN m (enc_rec p r)) fn i (Z.of_N (lenN pre)) a = DErr (cut_err r m) a.
  Proof.
    destruct r as [[kt k] v]. unfold rec_ok. cbn [fst]. intros Hk Hm0 Hm Hlen.
    pose proof (val_lt_256 p pok) as H256.
    change (2 ^ 63) with 9223372036854775808 in Hlen.
    assert (Hkt : kt mod 256 = kt) by (apply N.mod_small; lia).
    unfold enc_rec in *. rewrite Hkt in *.
    set (vk := put_uvarint (lenN k)) in *.
    pose proof (put_uvarint_length (lenN k)) as Hvk. fold vk in Hvk.
    set (tailv := if kt =? keyTypeVal p then put_uvarint (lenN v) ++ v else []) in *.
    rewrite takeN_cons by lia.
    rewrite lenN_cons, !lenN_app in Hm, Hlen.
    set (q := takeN (m - 1) (vk ++ k ++ tailv)).
    assert (Lq : lenN q = m - 1).
    { unfold q. apply lenN_takeN. rewrite !lenN_app. lia. }
    set (data := pre ++ kt :: q).
    assert (Ldata : lenN data = lenN pre + m) by (unfold data; rewrite lenN_app, lenN_cons; lia).
    cbn [decode_loop].
    replace (Z.of_N (lenN pre) <? zlen data)%Z with true by (unfold zlen; lia).
    unfold data at 1. rewrite zget_app.
    replace (keyTypeVal p <? kt) with false by lia.
    assert (D1 : zdrop data (Z.of_N (lenN pre) + 1)%Z = Some q).
    { replace (Z.of_N (lenN pre) + 1)%Z with (Z.of_N (lenN (pre ++ [kt]))) by (rewrite lenN_app, lenN_cons, lenN_nil; lia).
      unfold data. change (pre ++ kt :: q) with (pre ++ [kt] ++ q). rewrite app_assoc. apply zdrop_app. }
    rewrite D1. unfold cut_err. fold vk.
    destruct (N.ltb_spec (m - 1) (lenN vk)) as [HA|HA].
    - (* inside the key-length varint *)
      unfold q. rewrite takeN_app_le by lia. unfold vk. rewrite uvarint_strict_prefix by (fold vk; lia).
      fold vk. replace (m <? 1 + lenN vk + lenN k) with true by lia. reflexivity.
    - unfold q. rewrite takeN_app_ge by lia. unfold vk at 1.
      rewrite uvarint_put by (change (2 ^ 64) with 18446744073709551616; lia).
      fold vk. cbv zeta.
      set (o2 := (Z.of_N (lenN pre) + 1 + Z.of_N (lenN vk))%Z).
      rewrite (u64_of_int_small (zlen data - o2)) by (unfold zlen, two64, o2; lia).
      destruct (N.ltb_spec (m - 1 - lenN vk) (lenN k)) as [HB|HB].
      + (* inside the key *)
        replace (Z.to_N (zlen data - o2) <? lenN k) with true by (unfold zlen, o2; lia).
        replace (m <? 1 + lenN vk + lenN k) with true by lia. reflexivity.
      + (* after the key: a value record cut in its value part *)
        replace (Z.to_N (zlen data - o2) <? lenN k) with false by (unfold zlen, o2; lia).
        rewrite int_of_u64_small by (change (2 ^ 63) with 9223372036854775808; lia).
        rewrite (int64_small (o2 + Z.of_N (lenN k))) by (unfold two63, o2; lia).
        replace (m <? 1 + lenN vk + lenN k) with false by lia.
        unfold tailv in *. clear tailv.
        destruct (kt =? keyTypeVal p) eqn:Ekt; [|rewrite lenN_nil in Hm; lia].
        set (vv := put_uvarint (lenN v)) in *.
        pose proof (put_uvarint_length (lenN v)) as Hvv. fold vv in Hvv.
        rewrite lenN_app in Hm, Hlen.
        set (j := m - 1 - lenN vk - lenN k).
        assert (Eq : takeN (m - 1 - lenN vk) (k ++ vv ++ v) = k ++ takeN j (vv ++ v)).
        { rewrite takeN_app_ge by lia. reflexivity. }
        fold q. assert (Eq' : q = vk ++ k ++ takeN j (vv ++ v)).
        { unfold q. rewrite takeN_app_ge by lia. rewrite Eq. reflexivity. }
        assert (D2 : zdrop data (o2 + Z.of_N (lenN k))%Z = Some (takeN j (vv ++ v))).
        { replace (o2 + Z.of_N (lenN k))%Z with (Z.of_N (lenN (pre ++ [kt] ++ vk ++ k)))
            by (unfold o2; rewrite !lenN_app, lenN_cons, lenN_nil; lia).
          unfold data. rewrite Eq'.
          replace (pre ++ kt :: vk ++ k ++ takeN j (vv ++ v)) with ((pre ++ [kt] ++ vk ++ k) ++ takeN j (vv ++ v))
            by (rewrite <- ?app_assoc; cbn [app]; rewrite <- ?app_assoc; reflexivity).
          apply zdrop_app. }
        rewrite D2.
        destruct (N.ltb_spec j (lenN vv)) as [HC|HC].
        * rewrite takeN_app_le by lia. unfold vv. rewrite uvarint_strict_prefix by (fold vv; lia). reflexivity.
        * rewrite takeN_app_ge by lia. unfold vv at 1.
          rewrite uvarint_put by (change (2 ^ 64) with 18446744073709551616; lia).
          fold vv.
          rewrite (u64_of_int_small (zlen data - (o2 + Z.of_N (lenN k) + Z.of_N (lenN vv)))) by (unfold zlen, two64, o2, j in *; lia).
          replace (Z.to_N (zlen data - (o2 + Z.of_N (lenN k) + Z.of_N (lenN vv))) <? lenN v) with true
            by (unfold zlen, o2, j in *; lia).
          reflexivity.
  Qed.

  (* where a cut at n bytes falls: the records wholly before it, and the record it cuts with the number of
     its bytes that remain *)
  Fixpoint cut_at (n : N) (recs : list brec) : list brec * option (brec * N) :=
    match recs with
    | [] => ([], None)
    | r :: t =>
        if n =? 0 then ([], None)
        else if lenN (enc_rec p r) <=? n then
          let '(a, b) := cut_at (n - lenN (enc_rec p r)) t in (r :: a, b)
        else ([], Some (r, n))
    end.

  Lemma cut_at_spec recs : forall n,
    match cut_at n recs with
    | (done, None) => takeN n (enc_recs p recs) = enc_recs p done /\ exists rest, recs = done ++ rest
    | (done, Some (r, m)) =>
        takeN n (enc_recs p recs) = enc_recs p done ++ takeN m (enc_rec p r) /\
        0 < m /\ m < lenN (enc_rec p r) /\ exists rest, recs = done ++ r :: rest
    end.
  Proof.
    induction recs as [|r t IH]; intros n; cbn [cut_at].
    - split; [unfold takeN; destruct (N.to_nat n); reflexivity | exists []; reflexivity].
    - destruct (N.eqb_spec n 0) as [->|Hn].
      + split; [reflexivity | exists (r :: t); reflexivity].
      + destruct (N.leb_spec (lenN (enc_rec p r)) n) as [Hle|Hgt].
        * specialize (IH (n - lenN (enc_rec p r))).
          destruct (cut_at (n - lenN (enc_rec p r)) t) as [a [[r' m]|]].
          -- destruct IH as (E & H1 & H2 & rest & ->). split; [|split; [exact H1|split; [exact H2|]]].
             ++ rewrite !enc_recs_cons, takeN_app_ge by exact Hle. rewrite E, app_assoc. reflexivity.
             ++ exists rest. reflexivity.
          -- destruct IH as (E & rest & ->). split.
             ++ rewrite !enc_recs_cons, takeN_app_ge by exact Hle. rewrite E. reflexivity.
             ++ exists rest. reflexivity.
        * split; [|split; [lia|split; [exact Hgt|exists t; reflexivity]]].
          rewrite enc_recs_cons, takeN_app_le by lia. reflexivity.
  Qed.

  (* Batch.Load of the first n bytes of an encoding: if the cut falls between two records the records
     before it are returned (a shorter batch, no error: the plain encoding carries no count); if it falls
     inside a record the records before it have been indexed and the error is 'invalid key length' when the
     cut is before the end of that record's key, 'invalid value length' after it *)
  Theorem load_prefix recs n :
    Forall (rec_ok p) recs -> lenN (enc_recs p recs) < 2 ^ 59 ->
    batch_load p (takeN n (enc_recs p recs)) =
    match cut_at n recs with
    | (done, None) => DOk (mkbatch (takeN n (enc_recs p recs)) (idxs_of p 0 done) (ilen_of p done))
    | (done, Some (r, m)) => DErr (cut_err r m) (mkbatch (takeN n (enc_recs p recs)) (idxs_of p 0 done) (ilen_of p done))
    end.
  Proof.
    intros Hok Hlen.
    assert (Hlen' : lenN (enc_recs p recs) < 2 ^ 63).
    { change (2 ^ 59) with 576460752303423488 in Hlen. change (2 ^ 63) with 9223372036854775808. lia. }
    pose proof (cut_at_spec recs n) as S.
    destruct (cut_at n recs) as [done [[r m]|]].
    - destruct S as (E & Hm0 & Hm & rest & ->).
      rewrite E. unfold batch_load, batch_decode.
      apply Forall_app in Hok as [Hd Hr]. inversion Hr as [|? ? Hr1 _]; subst.
      rewrite enc_recs_app, enc_recs_cons, !lenN_app in Hlen, Hlen'.
      pose proof (decode_recs p pok batch decode_cb done [] (takeN m (enc_rec p r))
                    (decode_fuel (enc_recs p done ++ takeN m (enc_rec p r))) 0%Z
                    (mkbatch (enc_recs p done ++ takeN m (enc_rec p r)) [] 0%Z) Hd) as H.
      cbn [app lenN length N.of_nat] in H. change (Z.of_N 0) with 0%Z in H.
      assert (Lt : lenN (takeN m (enc_rec p r)) = m) by (apply lenN_takeN; lia).
      pose proof (enc_recs_len p done) as Hl.
      assert (Hf : (length done < decode_fuel (enc_recs p done ++ takeN m (enc_rec p r)))%nat).
      { unfold decode_fuel. rewrite app_length. unfold lenN in Hl. lia. }
      rewrite H by (try lia; rewrite lenN_app, Lt; change (2 ^ 63) with 9223372036854775808 in *; lia).
      rewrite decode_cb_fold. cbn [b_data b_index b_ilen app].
      pose proof (ilen_of_bound p done) as Hb.
      rewrite ilen_fold by (try exact pok; unfold two63; change (2 ^ 59) with 576460752303423488 in Hlen; lia).
      destruct (decode_fuel (enc_recs p done ++ takeN m (enc_rec p r)) - length done)%nat as [|f] eqn:Ef; [lia|].
      rewrite (decode_cut batch decode_cb (enc_recs p done) r m f _ _ Hr1 Hm0 Hm)
        by (change (2 ^ 63) with 9223372036854775808 in *; lia).
      rewrite Z.add_0_l. reflexivity.
    - destruct S as (E & rest & ->).
      rewrite E. apply Forall_app in Hok as [Hd _].
      rewrite enc_recs_app, lenN_app in Hlen.
      pose proof (load_dump p pok done Hd) as L. rewrite batch_of_spec in L. unfold batch_dump in L. cbn [b_data] in L.
      apply L. lia.
  Qed.

  Definition dres_fine {A} (r : dres A) : Prop :=
    match r with DOk _ | DErr _ _ => True | _ => False end.

  (* the only condition is that the data is a byte string a Go slice can hold: len(data) is an int *)
  Lemma decode_total_loop A (fn : A -> Z -> bidx -> cbres A) data :
    lenN data < 2 ^ 63 ->
    (forall a i ix, match fn a i ix with CbOk _ | CbErr _ _ => True | _ => False end) ->
    forall fuel i o a, (0 <= o <= zlen data)%Z -> (Z.to_nat (zlen data - o) < fuel)%nat ->
    dres_fine (decode_loop p fuel data fn i o a).
  Proof.
    intros Hl Hfn. change (2 ^ 63) with 9223372036854775808 in Hl.
    induction fuel as [|f IH]; intros i o a Ho Hf; [lia|].
    cbn [decode_loop].
    destruct (Z.ltb_spec o (zlen data)) as [Hlt|Hge]; [|exact I].
    unfold zlen in *.
    assert (G : exists kt, zget data o = Some kt).
    { unfold zget. replace (o <? 0)%Z with false by lia.
      destruct (nth_error data (Z.to_nat o)) eqn:E; [eexists; reflexivity|].
      apply nth_error_None in E. unfold lenN in Hlt. lia. }
    destruct G as [kt ->].
    destruct (keyTypeVal p <? kt); [exact I|].
    replace (o + 1)%Z with (Z.of_N (Z.to_N o + 1)) by lia.
    rewrite zdrop_ok by lia.
    destruct (uvarint (dropN (Z.to_N o + 1) data)) as [x n| |] eqn:U; try exact I.
    unfold uvarint in U. apply uvarint_f_ok_bounds in U. rewrite lenN_dropN in U.
    cbv zeta.
    rewrite u64_of_int_small by (unfold two64; lia).
    match goal with |- context [?a <? x] => destruct (N.ltb_spec a x) as [Hbig|Hfit] end; [exact I|].
    rewrite int_of_u64_small by (change (2 ^ 63) with 9223372036854775808; lia).
    rewrite int64_small by (unfold two63; lia).
    set (o3 := (Z.of_N (Z.to_N o + 1) + Z.of_N n + Z.of_N x)%Z) in *.
    destruct (kt =? keyTypeVal p).
    - replace o3 with (Z.of_N (Z.to_N o3)) by (unfold o3; lia).
      rewrite zdrop_ok by (unfold o3 in *; lia).
      destruct (uvarint (dropN (Z.to_N o3) data)) as [y m| |] eqn:U2; try exact I.
      unfold uvarint in U2. apply uvarint_f_ok_bounds in U2. rewrite lenN_dropN in U2.
      rewrite u64_of_int_small by (unfold two64, o3 in *; lia).
      match goal with |- context [?a <? y] => destruct (N.ltb_spec a y) as [Hb2|Hf2] end; [exact I|].
      rewrite int_of_u64_small by (change (2 ^ 63) with 9223372036854775808; unfold o3 in *; lia).
      rewrite int64_small by (unfold two63, o3 in *; lia).
      match goal with |- context [fn a i ?ix] => pose proof (Hfn a i ix) as F; destruct (fn a i ix) end; try exact I; try contradiction.
      apply IH; unfold zlen, o3 in *; lia.
    - match goal with |- context [fn a i ?ix] => pose proof (Hfn a i ix) as F; destruct (fn a i ix) end; try exact I; try contradiction.
      apply IH; unfold zlen, o3 in *; lia.
  Qed.

  (* Batch.Load on ARBITRARY bytes: a batch or a corruption error, never a panic (every index and slice
     expression is in range), and the fuel len(data)+1 is never exhausted (the loop terminates).  Stated in
     Props/C01.v as C01_batch_decode_total. *)
  Theorem load_total data : lenN data < 2 ^ 63 ->
    (exists b, batch_load p data = DOk b) \/ (exists e b, batch_load p data = DErr e b).
  Proof.
    intros Hs. unfold batch_load, batch_decode.
    pose proof (decode_total_loop batch decode_cb data Hs (fun _ _ _ => I) (decode_fuel data) 0%Z 0%Z
                  (mkbatch data [] 0%Z)) as T.
    assert (dres_fine (decode_loop p (decode_fuel data) data decode_cb 0%Z 0%Z (mkbatch data [] 0%Z))) as F.
    { apply T; unfold zlen, decode_fuel, lenN; lia. }
    destruct (decode_loop p (decode_fuel data) data decode_cb 0%Z 0%Z (mkbatch data [] 0%Z)) as [b|e b| |];
      try contradiction.
    - left. replace ((0 <=? -1) && negb (Z.of_nat (length (b_index b)) =? -1))%Z with false by lia.
      exists b. reflexivity.
    - right. exists e, b. reflexivity.
  Qed.
End Cut.

(* A witness for the decoder before fix d912a49 (decode_loop_old).  keyTypeDel, key length 2^64-11 as a
   ten-byte uvarint: int(x) = -11, the test o+int(x) = 0 <= len(data) of that code passed, keyLen = -11 was
   recorded, o returned to 0: the loop never advanced.  For EVERY amount of fuel decode_loop_old runs out of it
   (Go before the fix: Batch.Load never returned, its index grew without bound). *)
Definition loop_input : bytes := [0; 245; 255; 255; 255; 255; 255; 255; 255; 255; 1].

Section Witness.
  Variable p : kparams.
  Hypothesis del0 : keyTypeDel p = 0.
  Hypothesis val1 : keyTypeVal p = 1.

  Lemma loop_input_step f i b :
    decode_loop_old p (S f) loop_input decode_cb i 0%Z b =
    decode_loop_old p f loop_input decode_cb (i + 1)%Z 0%Z
      (mkbatch (b_data b) (b_index b ++ [mkidx 0 11%Z (-11)%Z 0%Z 0%Z]) (int64 (b_ilen b + (-11 + 0 + 8)))%Z).
  Proof.
    cbn [decode_loop_old]. rewrite val1.
    change (0 <? zlen loop_input)%Z with true. change (zget loop_input 0%Z) with (Some 0).
    change (1 <? 0) with false. cbv iota.
    change (zdrop loop_input (0 + 1)%Z) with (Some [245; 255; 255; 255; 255; 255; 255; 255; 255; 1]).
    cbv iota.
    replace (uvarint [245; 255; 255; 255; 255; 255; 255; 255; 255; 1]) with (UvOk 18446744073709551605 10)
      by (vm_compute; reflexivity).
    cbv iota zeta.
    replace (int_of_u64 18446744073709551605) with (-11)%Z by (vm_compute; reflexivity).
    replace (int64 (0 + 1 + Z.of_N 10 + -11))%Z with 0%Z by (vm_compute; reflexivity).
    change (zlen loop_input <? 0)%Z with false. change (0 =? 1) with false. cbv iota.
    unfold decode_cb at 1. cbn [bi_klen bi_vlen]. reflexivity.
  Qed.

  Theorem loop_input_never_ends : forall fuel i b,
    decode_loop_old p fuel loop_input decode_cb i 0%Z b = DFuel.
  Proof.
    induction fuel as [|f IH]; intros i b; [reflexivity|].
    rewrite loop_input_step. apply IH.
  Qed.
End Witness.
