(* Codec/BytesCmpProofs.v — the comparers of Codec/BytesCmp.v (bytewise, shortlex, xorcmp) meet the injective
   comparer contract of Base/Order.v. *)
From GL Require Import Codec.BytesCmp.
From Coq Require Import ZArith Lia ZifyBool.

Lemma bcompare_eq a b : bcompare a b = Eq <-> a = b.
Proof.
  revert b; induction a as [|x a IH]; intros [|y b]; cbn [bcompare]; split; try congruence; try reflexivity.
  - destruct (x ?= y) eqn:E; try discriminate. apply N.compare_eq in E. intros H. apply IH in H. congruence.
  - intros H. injection H as -> ->. rewrite N.compare_refl. apply IH. reflexivity.
Qed.

Lemma bcompare_opp a b : bcompare b a = CompOpp (bcompare a b).
Proof.
  revert b; induction a as [|x a IH]; intros [|y b]; cbn [bcompare]; try reflexivity.
  rewrite (N.compare_antisym x y). destruct (x ?= y); cbn; auto.
Qed.

Lemma bcompare_trans a b d : bcompare a b = Lt -> bcompare b d = Lt -> bcompare a d = Lt.
Proof.
  revert b d; induction a as [|x a IH]; intros [|y b] [|z d]; cbn [bcompare]; try congruence.
  destruct (x ?= y) eqn:E1; destruct (y ?= z) eqn:E2; try discriminate; intros H1 H2.
  - apply N.compare_eq in E1, E2. subst. rewrite N.compare_refl. eapply IH; eauto.
  - apply N.compare_eq in E1. subst. rewrite E2. reflexivity.
  - apply N.compare_eq in E2. subst. rewrite E1. reflexivity.
  - assert (x ?= z = Lt) as ->; [|reflexivity]. rewrite N.compare_lt_iff in *. lia.
Qed.

Lemma bsep_ok a b x : bsep a b = Some x -> bcompare a x <> Gt /\ bcompare x b = Lt.
Proof.
  revert b x; induction a as [|u a IH]; intros [|v b] x; cbn [bsep]; try discriminate.
  destruct (u =? v) eqn:E.
  - apply N.eqb_eq in E. subst v. destruct (bsep a b) as [d|] eqn:S; cbn; try discriminate.
    intros H; injection H as <-. destruct (IH _ _ S) as [H1 H2].
    cbn [bcompare]. rewrite N.compare_refl. auto.
  - destruct ((u <? 255) && (u + 1 <? v)) eqn:C; try discriminate.
    intros H; injection H as <-. cbn [bcompare].
    assert (u ?= u + 1 = Lt) as -> by (rewrite N.compare_lt_iff; lia).
    assert (u + 1 ?= v = Lt) as -> by (rewrite N.compare_lt_iff; lia).
    split; [discriminate|reflexivity].
Qed.

Lemma bsucc_ok b x : bsucc b = Some x -> bcompare b x <> Gt.
Proof.
  revert x; induction b as [|u b IH]; intros x; cbn [bsucc]; try discriminate.
  destruct (u =? 255).
  - destruct (bsucc b) as [d|] eqn:S; cbn; try discriminate.
    intros H; injection H as <-. cbn [bcompare]. rewrite N.compare_refl. apply IH. reflexivity.
  - intros H; injection H as <-. cbn [bcompare].
    assert (u ?= u + 1 = Lt) as -> by (rewrite N.compare_lt_iff; lia). discriminate.
Qed.

Theorem bytewise_ok : comparer_ok bytewise.
Proof.
  constructor; cbn.
  - apply bcompare_eq.
  - apply bcompare_opp.
  - apply bcompare_trans.
  - intros a b x H. apply bsep_ok. exact H.
  - apply bsucc_ok.
Qed.

Lemma bcompare_eq_len a b : bcompare a b = Eq -> length a = length b.
Proof. intros H. apply bcompare_eq in H. congruence. Qed.

Theorem shortlex_ok : comparer_ok shortlex.
Proof.
  constructor; cbn; unfold shortlex_cmp.
  - intros a b. destruct (Nat.compare (length a) (length b)) eqn:E.
    + apply bcompare_eq.
    + split; [discriminate|]. intros ->. rewrite Nat.compare_refl in E. discriminate.
    + split; [discriminate|]. intros ->. rewrite Nat.compare_refl in E. discriminate.
  - intros a b. rewrite (Nat.compare_antisym (length a) (length b)).
    destruct (Nat.compare (length a) (length b)); cbn; auto. apply bcompare_opp.
  - intros a b d.
    destruct (Nat.compare (length a) (length b)) eqn:E1;
    destruct (Nat.compare (length b) (length d)) eqn:E2; try discriminate; intros H1 H2.
    + apply Nat.compare_eq in E1, E2. rewrite E1, E2, Nat.compare_refl. eapply bcompare_trans; eauto.
    + apply Nat.compare_eq in E1. rewrite E1, E2. reflexivity.
    + apply Nat.compare_eq in E2. rewrite <- E2, E1. reflexivity.
    + assert (Nat.compare (length a) (length d) = Lt) as ->; [|reflexivity].
      rewrite Nat.compare_lt_iff in *. lia.
  - discriminate.
  - discriminate.
Qed.

Lemma xmap_invol m a : xmap m (xmap m a) = a.
Proof.
  unfold xmap. rewrite map_map. rewrite <- (map_id a) at 2. apply map_ext.
  intros x. rewrite N.lxor_assoc, N.lxor_nilpotent, N.lxor_0_r. reflexivity.
Qed.

Lemma xmap_inj m a b : xmap m a = xmap m b -> a = b.
Proof. intros H. rewrite <- (xmap_invol m a), <- (xmap_invol m b). congruence. Qed.

Theorem xorcmp_ok m : comparer_ok (xorcmp m).
Proof.
  constructor; cbn.
  - intros a b. rewrite bcompare_eq. split; [apply xmap_inj | congruence].
  - intros a b. apply bcompare_opp.
  - intros a b d. apply bcompare_trans.
  - intros a b x H. destruct (bsep (xmap m a) (xmap m b)) as [y|] eqn:S; cbn in H; try discriminate.
    injection H as <-. rewrite xmap_invol. apply bsep_ok. exact S.
  - intros b x H. destruct (bsucc (xmap m b)) as [y|] eqn:S; cbn in H; try discriminate.
    injection H as <-. rewrite xmap_invol. apply bsucc_ok. exact S.
Qed.
