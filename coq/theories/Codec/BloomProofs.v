(* Codec/BloomProofs.v — proofs about Codec/Bloom.v: a key whose hash was added to the generator
   is reported present by Contains, for every bits-per-key and every key list; Generate and
   Contains return on every input; the code before the repairs (the [_old] definitions of
   Bloom.v) divides by zero in Contains, and agrees with the repaired code where it did not
   overflow. *)
From GL Require Import Base.NIdxProofs Codec.Bloom.
From Coq Require Import Lia ZArith.

Lemma bit_mask_pow pos : bit_mask pos = 2 ^ (pos mod 8).
Proof. unfold bit_mask. apply N.shiftl_1_l. Qed.

Lemma land_mask_zero b pos : (N.land b (bit_mask pos) =? 0) = negb (N.testbit b (pos mod 8)).
Proof.
  rewrite bit_mask_pow. set (s := pos mod 8).
  destruct (N.testbit b s) eqn:Hb; cbn [negb].
  - apply N.eqb_neq. intros H.
    assert (Ht : N.testbit (N.land b (2 ^ s)) s = true).
    { rewrite N.land_spec, Hb, N.pow2_bits_true. reflexivity. }
    rewrite H in Ht. rewrite N.bits_0 in Ht. discriminate.
  - apply N.eqb_eq. apply N.bits_inj. intros n.
    rewrite N.land_spec, N.bits_0, N.pow2_bits_eqb.
    destruct (N.eqb_spec s n) as [<-|]; [now rewrite Hb|apply andb_false_r].
Qed.

Lemma lor_mask_sets b pos : N.testbit (N.lor b (bit_mask pos)) (pos mod 8) = true.
Proof. rewrite bit_mask_pow, N.lor_spec, N.pow2_bits_true. apply orb_true_r. Qed.

Lemma lor_keeps b m s : N.testbit b s = true -> N.testbit (N.lor b m) s = true.
Proof. intros H. now rewrite N.lor_spec, H. Qed.

(* the bit at position pos of the bit array held in the byte list f *)
Definition bit_at (f : bytes) (pos : N) : bool := N.testbit (get_at f (pos / 8)) (pos mod 8).

Lemma testbit_or_at_keeps l : forall i m j s,
  N.testbit (get_at l j) s = true -> N.testbit (get_at (or_at l i m) j) s = true.
Proof.
  induction l as [|b l IH]; intros i m j s H; cbn [or_at]; [exact H|].
  cbn [get_at] in H.
  destruct (N.eqb_spec i 0) as [->|Hi]; cbn [get_at]; destruct (N.eqb_spec j 0) as [->|Hj]; try exact H.
  - now apply lor_keeps.
  - now apply IH.
Qed.

Lemma bit_at_or_keeps l i m q : bit_at l q = true -> bit_at (or_at l i m) q = true.
Proof. unfold bit_at. apply testbit_or_at_keeps. Qed.

Lemma bit_at_or_sets l pos : pos / 8 < lenN l -> bit_at (or_at l (pos / 8) (bit_mask pos)) pos = true.
Proof. intros H. unfold bit_at. rewrite get_or_at_same by exact H. apply lor_mask_sets. Qed.


Definition bits_le (f f' : bytes) : Prop := forall q, bit_at f q = true -> bit_at f' q = true.

Lemma bits_le_refl f : bits_le f f.
Proof. intros q H. exact H. Qed.

Lemma bits_le_trans f g h : bits_le f g -> bits_le g h -> bits_le f h.
Proof. intros A B q H. apply B, A, H. Qed.

Lemma gen_probes_length j : forall nb d kh dest, lenN (gen_probes j nb d kh dest) = lenN dest.
Proof.
  induction j as [|j IH]; intros; cbn [gen_probes]; [reflexivity|].
  rewrite IH. apply lenN_or_at.
Qed.

Lemma gen_probes_keeps j : forall nb d kh dest, bits_le dest (gen_probes j nb d kh dest).
Proof.
  induction j as [|j IH]; intros nb d kh dest; cbn [gen_probes]; [apply bits_le_refl|].
  eapply bits_le_trans; [|apply IH]. intros q H. now apply bit_at_or_keeps.
Qed.

Lemma chk_probes_mono j : forall nb d kh f f', bits_le f f' ->
  chk_probes j nb d kh f = true -> chk_probes j nb d kh f' = true.
Proof.
  induction j as [|j IH]; intros nb d kh f f' Hle H; cbn [chk_probes] in *; [reflexivity|].
  rewrite land_mask_zero in *.
  destruct (N.testbit (get_at f (kh mod nb / 8)) (kh mod nb mod 8)) eqn:Hb; cbn [negb] in H; [|discriminate].
  apply (Hle (kh mod nb)) in Hb. unfold bit_at in Hb. rewrite Hb. cbn [negb].
  eapply IH; eauto.
Qed.

(* every probe position lies inside the byte array *)
Definition in_range (nb : N) (dest : bytes) : Prop := nb <> 0 /\ forall pos, pos < nb -> pos / 8 < lenN dest.

Lemma probe_in_range nb dest kh : in_range nb dest -> (kh mod nb) / 8 < lenN dest.
Proof. intros [Hn H]. apply H. now apply N.mod_lt. Qed.

Lemma gen_probes_sets j : forall nb d kh dest, in_range nb dest ->
  chk_probes j nb d kh (gen_probes j nb d kh dest) = true.
Proof.
  induction j as [|j IH]; intros nb d kh dest Hr; cbn [gen_probes chk_probes]; [reflexivity|].
  set (pos := kh mod nb). set (dest1 := or_at dest (pos / 8) (bit_mask pos)).
  assert (Hr1 : in_range nb dest1).
  { destruct Hr as [Hn H]. split; [exact Hn|]. intros q Hq. unfold dest1. rewrite lenN_or_at. now apply H. }
  rewrite land_mask_zero.
  assert (Hb : bit_at (gen_probes j nb d (w32 (kh + d)) dest1) pos = true).
  { apply gen_probes_keeps. unfold dest1. apply bit_at_or_sets. now apply probe_in_range. }
  unfold bit_at in Hb. rewrite Hb. cbn [negb]. now apply IH.
Qed.

Lemma gen_probes_get_other j : forall nb d kh dest i, nb <> 0 -> (forall pos, pos < nb -> pos / 8 <> i) ->
  get_at (gen_probes j nb d kh dest) i = get_at dest i.
Proof.
  induction j as [|j IH]; intros nb d kh dest i Hn H; cbn [gen_probes]; [reflexivity|].
  rewrite IH by assumption. apply get_or_at_other. apply H. now apply N.mod_lt.
Qed.


Section Fold.
  Variable p : bparams.
  Variables k nb : N.

  Lemma fold_length hs : forall dest, lenN (fold_left (gen_add p k nb) hs dest) = lenN dest.
  Proof.
    induction hs as [|h t IH]; intros dest; cbn [fold_left]; [reflexivity|].
    rewrite IH. unfold gen_add. apply gen_probes_length.
  Qed.

  Lemma fold_keeps hs : forall dest, bits_le dest (fold_left (gen_add p k nb) hs dest).
  Proof.
    induction hs as [|h t IH]; intros dest; cbn [fold_left]; [apply bits_le_refl|].
    eapply bits_le_trans; [|apply IH]. unfold gen_add. apply gen_probes_keeps.
  Qed.

  Lemma fold_sets hs : forall dest kh, in_range nb dest -> In kh hs ->
    chk_probes (N.to_nat k) nb (rot (b_grotr p) (b_grotl p) kh) kh (fold_left (gen_add p k nb) hs dest) = true.
  Proof.
    induction hs as [|h t IH]; intros dest kh Hr Hin; [destruct Hin|].
    cbn [fold_left]. destruct Hin as [->|Hin].
    - eapply chk_probes_mono; [apply fold_keeps|]. unfold gen_add. now apply gen_probes_sets.
    - apply IH; [|exact Hin]. destruct Hr as [Hn H]. split; [exact Hn|].
      intros q Hq. unfold gen_add. rewrite gen_probes_length. now apply H.
  Qed.

  Lemma fold_get_other hs : forall dest i, nb <> 0 -> (forall pos, pos < nb -> pos / 8 <> i) ->
    get_at (fold_left (gen_add p k nb) hs dest) i = get_at dest i.
  Proof.
    induction hs as [|h t IH]; intros dest i Hn H; cbn [fold_left]; [reflexivity|].
    rewrite IH by assumption. unfold gen_add. now apply gen_probes_get_other.
  Qed.
End Fold.


Lemma bloom_k_range p bpk : bparams_ok p -> 1 <= bloom_k p bpk /\ bloom_k p bpk < 256 /\ bloom_k p bpk <= b_ckmax p.
Proof.
  intros (_ & _ & Hk1 & Hk & Hs & Hc & _). unfold bloom_k, bloom_k_old.
  set (q := Z.quot _ _). pose proof (Z.mod_pos_bound q 256 eq_refl) as Hq.
  destruct (N.ltb_spec (Z.to_N (q mod 256)%Z) 1); [lia|].
  destruct (N.ltb_spec (b_kcmp p) (Z.to_N (q mod 256)%Z)); lia.
Qed.

Lemma bloom_nbytes_bound p bpk n : bloom_nbytes p bpk n * 8 < 2 ^ 32.
Proof.
  unfold bloom_nbytes. set (x := w32 _).
  assert (Hx : x < 2 ^ 32) by apply w32_lt.
  pose proof (N.mul_div_le x 8). change (2 ^ 32) with 4294967296 in *. lia.
Qed.

Lemma contains_nbits_small p n : 2 ^ 32 <= b_probebits p -> n * 8 < 2 ^ 32 -> contains_nbits p n = n * 8.
Proof.
  intros Hp Hn. unfold contains_nbits. destruct (N.ltb_spec n (b_probebits p / 8)); [reflexivity|].
  assert (H8 : 2 ^ 32 / 8 <= b_probebits p / 8) by (apply N.div_le_mono; [discriminate|exact Hp]).
  change (2 ^ 32 / 8) with 536870912 in H8. change (2 ^ 32) with 4294967296 in Hn. lia.
Qed.

Lemma generate_into_nonempty p bpk hashes alloc : hashes <> [] ->
  bloom_generate_into p bpk hashes alloc =
    let k := bloom_k p bpk in
    let nbytes := bloom_nbytes p bpk (lenN hashes) in
    let nbits := w32 (nbytes * 8) in
    if (nbits =? 0) && (0 <? k) then None
    else Some (fold_left (gen_add p k nbits) hashes (set_at alloc nbytes k)).
Proof. intros H. destruct hashes; [contradiction|reflexivity]. Qed.


Lemma generate_into_some p bpk hashes alloc f : bparams_ok p -> hashes <> [] ->
  bloom_generate_into p bpk hashes alloc = Some f ->
  let nbytes := bloom_nbytes p bpk (lenN hashes) in
  nbytes * 8 <> 0 /\
  f = fold_left (gen_add p (bloom_k p bpk) (nbytes * 8)) hashes (set_at alloc nbytes (bloom_k p bpk)).
Proof.
  intros ok Hne Hgen nbytes. destruct (bloom_k_range p bpk ok) as (Hk1 & _).
  rewrite generate_into_nonempty in Hgen by exact Hne. cbv zeta in Hgen. fold nbytes in Hgen.
  rewrite (w32_small (nbytes * 8)) in Hgen by apply bloom_nbytes_bound.
  destruct (N.eqb_spec (nbytes * 8) 0) as [Hz|Hz]; cbn [andb] in Hgen.
  - destruct (N.ltb_spec 0 (bloom_k p bpk)); [discriminate|lia].
  - injection Hgen as <-. split; [exact Hz | reflexivity].
Qed.

(* Generate into arbitrary (not necessarily cleared) memory of the right size *)
Theorem bloom_no_false_negative_into p bpk hashes alloc f key :
  bparams_ok p ->
  lenN alloc = bloom_nbytes p bpk (lenN hashes) + 1 ->
  bloom_generate_into p bpk hashes alloc = Some f ->
  In (bloom_hash p key) hashes ->
  bloom_contains p f key = Some true.
Proof.
  intros ok Hlen Hgen Hin.
  destruct (bloom_k_range p bpk ok) as (Hk1 & Hkb & Hkr).
  pose proof (bloom_nbytes_bound p bpk (lenN hashes)) as Hnb.
  assert (Hne : hashes <> []) by (intros ->; destruct Hin).
  destruct (generate_into_some p bpk hashes alloc f ok Hne Hgen) as [Hz ->]. cbv zeta in Hz.
  set (k := bloom_k p bpk) in *. set (nbytes := bloom_nbytes p bpk (lenN hashes)) in *. set (nbits := nbytes * 8) in *.
  set (dest := set_at alloc nbytes k).
  assert (Hld : lenN dest = nbytes + 1) by (unfold dest; now rewrite lenN_set_at).
  assert (Hr : in_range nbits dest).
  { split; [exact Hz|]. intros pos Hpos. rewrite Hld. unfold nbits in Hpos.
    assert (pos / 8 < nbytes) by (apply N.div_lt_upper_bound; lia). lia. }
  unfold bloom_contains. rewrite fold_length, Hld.
  destruct (N.ltb_spec (nbytes + 1) 2) as [Hs|Hs]; [unfold nbits in Hz; lia|].
  replace (nbytes + 1 - 1) with nbytes by lia.
  rewrite (contains_nbits_small p nbytes) by (try exact Hnb; apply ok). fold nbits.
  rewrite fold_get_other.
  2: exact Hz.
  2: { intros pos Hpos. unfold nbits in Hpos.
       assert (pos / 8 < nbytes) by (apply N.div_lt_upper_bound; lia). lia. }
  assert (Hg : get_at dest nbytes = k) by (unfold dest; apply get_set_at_same; lia).
  rewrite Hg.
  destruct (N.ltb_spec (b_ckmax p) k); [reflexivity|].
  destruct (N.eqb_spec nbits 0); [contradiction|]. cbn [andb]. f_equal.
  destruct ok as (Hr1 & Hr2 & _). rewrite <- Hr1, <- Hr2.
  apply fold_sets; assumption.
Qed.

(* Generate as the table writer uses it (fresh zeroed memory) *)
Theorem bloom_no_false_negative_hashes p bpk hashes f key :
  bparams_ok p ->
  bloom_generate p bpk hashes = Some f ->
  In (bloom_hash p key) hashes ->
  bloom_contains p f key = Some true.
Proof.
  intros ok Hgen Hin. eapply bloom_no_false_negative_into; eauto. apply zeros_length.
Qed.

Theorem bloom_no_false_negative p bpk keys f key :
  bparams_ok p ->
  bloom_filter_of p bpk keys = Some f ->
  In key keys ->
  bloom_contains p f key = Some true.
Proof.
  intros ok Hgen Hin. eapply bloom_no_false_negative_hashes; eauto. now apply in_map.
Qed.

(* a filter whose stored k is in the reserved range answers "possibly present" for every key *)
Theorem bloom_reads_any_k p f key :
  2 <= lenN f -> b_ckmax p < get_at f (lenN f - 1) -> bloom_contains p f key = Some true.
Proof.
  intros Hl Hk. unfold bloom_contains.
  destruct (N.ltb_spec (lenN f) 2); [lia|].
  destruct (N.ltb_spec (b_ckmax p) (get_at f (lenN f - 1))); [reflexivity|lia].
Qed.

(* the shape of a generated filter: nBytes bytes of bits followed by k, never the reserved range *)
Theorem bloom_generated_shape p bpk hashes f :
  bparams_ok p ->
  bloom_generate p bpk hashes = Some f ->
  lenN f = bloom_nbytes p bpk (lenN hashes) + 1 /\
  (hashes <> [] -> get_at f (lenN f - 1) = bloom_k p bpk /\ bloom_k p bpk <= b_ckmax p /\ 2 <= lenN f).
Proof.
  intros ok Hgen.
  destruct (bloom_k_range p bpk ok) as (Hk1 & _ & Hkr).
  pose proof (bloom_nbytes_bound p bpk (lenN hashes)) as Hnb.
  unfold bloom_generate in Hgen.
  destruct hashes as [|h0 t] eqn:Eh.
  - unfold bloom_generate_into in Hgen. injection Hgen as <-. rewrite lenN_set_at, zeros_length.
    split; [reflexivity|]. intros H. now destruct H.
  - rewrite <- Eh in *. assert (Hne : hashes <> []) by (rewrite Eh; discriminate). clear Eh h0 t.
    destruct (generate_into_some p bpk hashes _ f ok Hne Hgen) as [Hz ->]. cbv zeta in Hz.
    set (k := bloom_k p bpk) in *. set (nbytes := bloom_nbytes p bpk (lenN hashes)) in *.
    rewrite fold_length, lenN_set_at, zeros_length.
    split; [reflexivity|]. intros _.
    replace (nbytes + 1 - 1) with nbytes by lia.
    rewrite fold_get_other.
    + rewrite get_set_at_same by (rewrite zeros_length; lia).
      split; [reflexivity|]. split; [exact Hkr|lia].
    + exact Hz.
    + intros pos Hpos. assert (pos / 8 < nbytes) by (apply N.div_lt_upper_bound; lia). lia.
Qed.

(* a generated filter is never empty *)
Lemma bloom_generated_nonempty p bpk hashes f : bloom_generate p bpk hashes = Some f -> f <> [].
Proof.
  unfold bloom_generate, bloom_generate_into. intros H Hf. subst f.
  set (nbytes := bloom_nbytes p bpk (lenN hashes)) in *.
  assert (Hl : forall l : bytes, lenN l = nbytes + 1 -> Some l = Some [] -> False).
  { intros l Hl E. injection E as ->. rewrite lenN_nil in Hl. lia. }
  destruct hashes.
  - revert H. apply Hl. now rewrite lenN_set_at, zeros_length.
  - destruct (_ && _); [discriminate|]. revert H. apply Hl.
    now rewrite fold_length, lenN_set_at, zeros_length.
Qed.

Lemma bloom_bits_le p n f : b_maxbits p = 2 ^ 32 - 8 -> bloom_bits p n f <= 2 ^ 32 - 8.
Proof.
  intros Hm. unfold bloom_bits. rewrite Hm.
  change (2 ^ 32 - 8) with 4294967288.
  destruct ((n =? 0) || (f <=? 0)%Z); [lia|].
  destruct (N.ltb_spec (4294967288 / Z.to_N f) n) as [H|H].
  - rewrite w32_small by (change (2 ^ 32) with 4294967296; lia). lia.
  - assert (Hle : n * Z.to_N f <= 4294967288).
    { destruct (N.eq_dec (Z.to_N f) 0) as [E|E]; [rewrite E; lia|].
      pose proof (N.mul_div_le 4294967288 (Z.to_N f) E). nia. }
    rewrite N.mod_small by (change (2 ^ 64) with 18446744073709551616; lia).
    rewrite w32_small by (change (2 ^ 32) with 4294967296; lia). exact Hle.
Qed.

Lemma bloom_nbytes_pos p bpk n : bparams_tot_ok p -> bloom_nbytes p bpk n <> 0.
Proof.
  intros (Hc & Hs1 & Hs2 & Hm & _). unfold bloom_nbytes.
  pose proof (bloom_bits_le p n (bloom_new bpk) Hm) as H0.
  set (nb0 := bloom_bits p n (bloom_new bpk)) in *.
  set (nb1 := if nb0 <? b_mincmp p then b_minset p else nb0).
  change (2 ^ 32) with 4294967296 in *.
  assert (H1 : 1 <= nb1 /\ nb1 < 4294967296 - 7).
  { unfold nb1. destruct (N.ltb_spec nb0 (b_mincmp p)); lia. }
  rewrite w32_small by (change (2 ^ 32) with 4294967296; lia).
  intros Hd. apply N.div_small_iff in Hd; lia.
Qed.

(* Generate returns for every int bitsPerKey (negative and huge included) and every key list *)
Theorem bloom_generate_total p bpk hashes : bparams_tot_ok p -> exists f, bloom_generate p bpk hashes = Some f.
Proof.
  intros ok. unfold bloom_generate.
  destruct hashes as [|h0 t] eqn:Eh; [eexists; reflexivity|]. rewrite <- Eh in *.
  assert (Hne : hashes <> []) by (rewrite Eh; discriminate). clear Eh h0 t.
  rewrite generate_into_nonempty by exact Hne. cbv zeta.
  pose proof (bloom_nbytes_bound p bpk (lenN hashes)) as Hnb.
  rewrite (w32_small (bloom_nbytes p bpk (lenN hashes) * 8)) by exact Hnb.
  pose proof (bloom_nbytes_pos p bpk (lenN hashes) ok) as Hz.
  destruct (N.eqb_spec (bloom_nbytes p bpk (lenN hashes) * 8) 0); [lia|]. cbn [andb].
  eexists; reflexivity.
Qed.

Lemma contains_nbits_pos p n : b_probebits p = 2 ^ 32 -> 1 <= n -> contains_nbits p n <> 0.
Proof.
  intros Hp Hn. unfold contains_nbits. rewrite Hp.
  destruct (N.ltb_spec n (2 ^ 32 / 8)); [lia|]. discriminate.
Qed.

(* Contains returns on every filter (every byte string, of any length) *)
Theorem bloom_contains_total p f key : bparams_tot_ok p -> exists b, bloom_contains p f key = Some b.
Proof.
  intros (_ & _ & _ & _ & Hp). unfold bloom_contains.
  destruct (N.ltb_spec (lenN f) 2); [eexists; reflexivity|].
  destruct (b_ckmax p <? get_at f (lenN f - 1)); [eexists; reflexivity|].
  pose proof (contains_nbits_pos p (lenN f - 1) Hp) as Hz.
  destruct (N.eqb_spec (contains_nbits p (lenN f - 1)) 0) as [E|E]; [exfalso; apply Hz; [lia|exact E]|].
  cbn [andb]. eexists; reflexivity.
Qed.

(* Contains on (length, byte function) is Contains on the list *)
Lemma chk_probes_fn_eq j : forall nb d kh f, chk_probes_fn j nb d kh (get_at f) = chk_probes j nb d kh f.
Proof. induction j as [|j IH]; intros; cbn [chk_probes_fn chk_probes]; [reflexivity|]. now rewrite IH. Qed.

Lemma bloom_contains_fn_eq p f key : bloom_contains_fn p (lenN f) (get_at f) key = bloom_contains p f key.
Proof.
  unfold bloom_contains_fn, bloom_contains_with, bloom_contains. cbv zeta.
  now rewrite chk_probes_fn_eq.
Qed.

Lemma bloom_contains_fn_old_eq p f key : bloom_contains_fn_old p (lenN f) (get_at f) key = bloom_contains_old p f key.
Proof.
  unfold bloom_contains_fn_old, bloom_contains_with, bloom_contains_old. cbv zeta.
  now rewrite chk_probes_fn_eq.
Qed.

(* Contains before the repair divides by zero (nBits = uint32(8 * 2^29) = 0) on every filter of
   2^29+1 bytes whose last byte, the stored k, is in 1..[b_ckmax] (30 in goleveldb) *)
Lemma bloom_contains_old_panics p f key :
  lenN f = 2 ^ 29 + 1 -> 1 <= get_at f (2 ^ 29) -> get_at f (2 ^ 29) <= b_ckmax p ->
  bloom_contains_old p f key = None.
Proof.
  intros Hl H1 H2. unfold bloom_contains_old. cbv zeta. rewrite Hl.
  change (2 ^ 29 + 1 - 1) with (2 ^ 29). change (2 ^ 29 + 1 <? 2) with false. cbv iota.
  change (contains_nbits_old (2 ^ 29)) with 0.
  destruct (N.ltb_spec (b_ckmax p) (get_at f (2 ^ 29))); [lia|].
  destruct (N.ltb_spec 0 (get_at f (2 ^ 29))); [reflexivity|lia].
Qed.

Lemma bloom_contains_old_not_total p : 1 <= b_ckmax p ->
  ~ (forall f key, exists b, bloom_contains_old p f key = Some b).
Proof.
  intros Hk H.
  destruct (H (set_at (zeros (2 ^ 29 + 1)) (2 ^ 29) 1) []) as [b Hb].
  rewrite bloom_contains_old_panics in Hb; [discriminate| | |].
  - now rewrite lenN_set_at, zeros_length.
  - rewrite get_set_at_same; [lia|]. rewrite zeros_length. change (2 ^ 29) with 536870912. lia.
  - rewrite get_set_at_same; [lia|]. rewrite zeros_length. change (2 ^ 29) with 536870912. lia.
Qed.

Lemma bloom_bits_old_domain p n bpk : b_maxbits p = 2 ^ 32 - 8 ->
  (0 <= bpk)%Z -> (Z.of_N n * bpk < 2 ^ 32 - 7)%Z ->
  bloom_bits p n (bloom_new bpk) = Z.to_N ((Z.of_N n * bpk) mod 2 ^ 32)%Z.
Proof.
  intros Hm Hb Hn. change (2 ^ 32)%Z with 4294967296%Z in *.
  rewrite Z.mod_small by lia.
  unfold bloom_new. destruct (Z.ltb_spec bpk 0); [lia|].
  unfold bloom_bits. rewrite Hm. change (2 ^ 32 - 8) with 4294967288.
  destruct (N.eqb_spec n 0) as [->|Hn0]; cbn [orb]; [reflexivity|].
  destruct (Z.leb_spec bpk 0); [replace bpk with 0%Z by lia; now rewrite Z.mul_0_r|].
  assert (Hle : n * Z.to_N bpk <= 4294967288) by lia.
  destruct (N.ltb_spec (4294967288 / Z.to_N bpk) n) as [Hd|Hd].
  - exfalso. assert (n <= 4294967288 / Z.to_N bpk); [|lia].
    apply N.div_le_lower_bound; lia.
  - rewrite N.mod_small by (change (2 ^ 64) with 18446744073709551616; lia).
    rewrite w32_small by (change (2 ^ 32) with 4294967296; lia). lia.
Qed.

(* where the bit count n * bitsPerKey of the code before the repairs stays below 2^32 - 7 (and
   bitsPerKey is not negative) the repaired Generate writes the same bytes *)
Theorem bloom_generate_same_on_old_domain p bpk hashes : b_maxbits p = 2 ^ 32 - 8 ->
  (0 <= bpk)%Z -> (Z.of_N (lenN hashes) * bpk < 2 ^ 32 - 7)%Z ->
  bloom_generate p bpk hashes = bloom_generate_old p bpk hashes.
Proof.
  intros Hm Hb Hn.
  assert (Hk : bloom_k p bpk = bloom_k_old p bpk).
  { unfold bloom_k, bloom_new. destruct (Z.ltb_spec bpk 0); [lia|reflexivity]. }
  assert (Hy : bloom_nbytes p bpk (lenN hashes) = bloom_nbytes_old p bpk (lenN hashes)).
  { unfold bloom_nbytes, bloom_nbytes_old. now rewrite bloom_bits_old_domain. }
  unfold bloom_generate, bloom_generate_into, bloom_generate_old. cbv zeta.
  now rewrite Hk, Hy.
Qed.

(* on every filter of at most 2^29 bytes the repaired Contains gives the same answer *)
Theorem bloom_contains_same_on_old_domain p f key : b_probebits p = 2 ^ 32 ->
  lenN f <= 2 ^ 29 -> bloom_contains p f key = bloom_contains_old p f key.
Proof.
  intros Hp Hl. unfold bloom_contains, bloom_contains_old. cbv zeta.
  destruct (N.ltb_spec (lenN f) 2); [reflexivity|].
  assert (E : contains_nbits p (lenN f - 1) = contains_nbits_old (lenN f - 1)).
  { change (2 ^ 29) with 536870912 in Hl.
    rewrite contains_nbits_small by (rewrite ?Hp; change (2 ^ 32) with 4294967296; lia).
    unfold contains_nbits_old. rewrite w32_small by (change (2 ^ 32) with 4294967296; lia). reflexivity. }
  now rewrite E.
Qed.
