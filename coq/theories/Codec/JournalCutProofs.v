(* Codec/JournalCutProofs.v — exactness of truncation (the number of records yielded for a cut at n is exactly
   the number of records wholly inside the first n bytes), completeness under damage, and a cut followed by other
   bytes up to the written length. *)
From GL Require Import Codec.JournalSpec Codec.JournalLemmas Codec.JournalLayoutProofs
  Codec.JournalReaderProofs Codec.JournalWriterProofs Codec.JournalProofs Codec.JournalDamageProofs.
From GL Require Mem.ListLemmas.
From Coq Require Import PeanoNat Lia.

Section CutProofs.
  Variable crc : bytes -> N.
  Variable p : jparams.
  Hypothesis pok : jparams_ok p.

  Let H7 : hs p = 7 := hs7 p pok.
  Let Hb : hs p < bs p := hs_lt_bs p pok.

  Theorem prefix_complete strict ck fl rs d n j :
    firstn n d = firstn n (jwrite crc p fl rs) ->
    (length (jwrite crc p fl (firstn j rs)) <= n)%nat ->
    exists t, jread crc p strict ck d = map Rec (firstn j rs) ++ t.
  Proof.
    intros Ed Hlen. destruct (prefix_complete_log crc p pok strict ck fl rs d n j Ed Hlen) as (t & E).
    unfold jread. rewrite E, outs_app, outs_recs. eexists. reflexivity.
  Qed.

  (* the chunk lists of the records, consistent over all prefixes of the record list *)
  Lemma layout_ok_pref rs : forall l, wf_lay p l ->
    exists css, Forall2 (rec_chunks p) rs css /\
      forall j, lay_chunks (fold_left (lay_record p) (firstn j rs) l) = lay_chunks l ++ concat (firstn j css).
  Proof.
    induction rs as [|r rs IH]; intros l W.
    - exists []. split; [constructor|]. intros j. rewrite !firstn_nil. cbn. now rewrite app_nil_r.
    - destruct (lay_record_ok crc p pok l r W) as (W1 & cs & Ec & Hc).
      destruct (IH _ W1) as (css & H & Hj). exists (cs :: css). split; [constructor; assumption|].
      intros [|j]; cbn [firstn fold_left concat]; [now rewrite app_nil_r|].
      rewrite Hj, Ec, app_assoc. reflexivity.
  Qed.

  Lemma fit_ge cs : forall n K, (K <= fit p cs n)%nat -> bsize p (firstn K cs) <= n.
  Proof.
    induction cs as [|c cs IH]; intros n K H; cbn [fit] in H.
    - replace K with 0%nat by lia. cbn. lia.
    - destruct K as [|K]; [cbn; lia|]. destruct (csize p c <=? n) eqn:E; [|lia].
      cbn [firstn bsize]. specialize (IH (n - csize p c) K ltac:(lia)). lia.
  Qed.

  Lemma fitb_small cl : Forall (closed_ok p) cl -> forall rest open n,
    n < bs p * lenN cl -> (fitb p (cl ++ rest) open n <= length (concat cl))%nat.
  Proof.
    induction 1 as [|c cl Hc Hcl IH]; intros rest open n Hn.
    - rewrite lenN_nil in Hn. lia.
    - rewrite lenN_cons in Hn. cbn [app fitb concat]. rewrite app_length.
      destruct (bs p <=? n) eqn:E.
      + specialize (IH rest open (n - bs p) ltac:(lia)). lia.
      + pose proof (fit_le p pok c n). lia.
  Qed.

  Lemma firstn_len_app {A} (a b : list A) : firstn (length a) (a ++ b) = a.
  Proof. rewrite firstn_app, Nat.sub_diag, firstn_all. cbn. apply app_nil_r. Qed.

  (* the converse of fitb_ext: if all chunks of a layout ending in a chunk are counted inside
     the first n bytes of an extension, its stream is at most n bytes long *)
  Lemma fitb_ext_conv l1 l n :
    wf_lay p l1 -> lay_ext l1 l -> l_open l1 <> [] ->
    (length (lay_chunks l1) <= fitb p (l_closed l) (l_open l) n)%nat ->
    lenN (render_lay crc p l1) <= n.
  Proof.
    intros W1 (more & Hext) Hne H. rewrite (lenN_render_lay crc p pok l1 W1).
    destruct W1 as (Wc & Wo). unfold lay_chunks in H. rewrite app_length in H.
    assert (Hpos : (0 < length (l_open l1))%nat) by (destruct (l_open l1); [congruence|cbn; lia]).
    destruct (n <? bs p * lenN (l_closed l1)) eqn:En.
    - exfalso. destruct Hext as [(E1 & E2)|(rest & E)].
      + rewrite E1, E2 in H.
        pose proof (fitb_small _ Wc [] (l_open l1 ++ more) n ltac:(lia)) as F.
        rewrite app_nil_r in F. lia.
      + rewrite E in H.
        pose proof (fitb_small _ Wc ((l_open l1 ++ more) :: rest) (l_open l) n ltac:(lia)) as F. lia.
    - assert (Hfit : forall K, (length (l_open l1) <= fit p (l_open l1 ++ more) K)%nat ->
                       bsize p (l_open l1) <= K).
      { intros K HK. apply fit_ge in HK. rewrite firstn_len_app in HK. exact HK. }
      destruct Hext as [(E1 & E2)|(rest & E)].
      + rewrite E1, E2 in H.
        pose proof (fitb_prefix p pok _ Wc [] (l_open l1 ++ more) n ltac:(lia)) as F.
        rewrite app_nil_r in F. cbn [fitb] in F. rewrite F in H.
        specialize (Hfit (n - bs p * lenN (l_closed l1)) ltac:(lia)). lia.
      + rewrite E in H.
        pose proof (fitb_prefix p pok _ Wc ((l_open l1 ++ more) :: rest) (l_open l) n ltac:(lia)) as F.
        cbn [fitb] in F. rewrite F in H.
        destruct (bs p <=? n - bs p * lenN (l_closed l1)) eqn:E2.
        * destruct Wo as (Wo & _). lia.
        * specialize (Hfit (n - bs p * lenN (l_closed l1)) ltac:(lia)). lia.
  Qed.

  (* a record always ends in a chunk of the open block *)
  Lemma lay_record_open_ne l r : wf_lay p l -> l_open (lay_record p l r) <> [].
  Proof.
    intros W. destruct (lay_next_ok p pok l W) as (_ & Hfit & _).
    unfold lay_record. rewrite (lws_fin p pok) by (unfold fits; rewrite ?lenN_nil; lia).
    destruct (lay_write_st p (length r) (lay_next p l) true [] r) as ((l' & f') & d').
    cbn. intros E. apply app_eq_nil in E as (_ & E). discriminate.
  Qed.

  Lemma layout_open_ne rs : forall l, wf_lay p l -> rs <> [] ->
    l_open (fold_left (lay_record p) rs l) <> [].
  Proof.
    induction rs as [|r rs IH]; intros l W Hne; [congruence|]. cbn [fold_left].
    destruct rs as [|r' rs']; [cbn; apply lay_record_open_ne; exact W|].
    apply IH; [apply (lay_record_ok crc p pok l r W)|discriminate].
  Qed.


  (* the chunk lists of the records of rs and of all its prefixes, and the two directions of
     "the first j records are wholly inside the first n bytes" <-> "their chunks are counted" *)
  Definition chunks_of (rs : list bytes) (css : list (list chunk)) : Prop :=
    Forall2 (rec_chunks p) rs css /\
    forall j, lay_chunks (layout p (firstn j rs)) = concat (firstn j css).

  Lemma chunks_of_ex rs : exists css, chunks_of rs css.
  Proof.
    destruct (layout_ok_pref rs lay_empty (wf_empty p pok)) as (css & H & Hj).
    exists css. split; [exact H|]. intros j. exact (Hj j).
  Qed.

  Lemma chunks_of_all rs css : chunks_of rs css -> lay_chunks (layout p rs) = concat css.
  Proof.
    intros (H & Hj). specialize (Hj (length rs)). rewrite firstn_all in Hj. rewrite Hj.
    rewrite firstn_all2; [reflexivity|]. rewrite <- (ListLemmas.Forall2_length _ _ _ H). lia.
  Qed.

  Lemma count_inside rs css m n : chunks_of rs css -> (m <= length rs)%nat ->
    (length (concat (firstn m css)) <=
       fitb p (l_closed (layout p rs)) (l_open (layout p rs)) (N.of_nat n))%nat ->
    (length (jwrite crc p [] (firstn m rs)) <= n)%nat.
  Proof.
    intros (H & Hj) Hm Hk. rewrite (jwrite_layout crc p pok).
    destruct m as [|m'].
    { cbn [firstn]. change (layout p []) with lay_empty. cbn. lia. }
    destruct (layout_split crc p pok rs (S m')) as (W1 & _ & Hext).
    assert (Hne : l_open (layout p (firstn (S m') rs)) <> []).
    { apply layout_open_ne; [apply (wf_empty p pok)|].
      destruct rs; [cbn in Hm; lia|discriminate]. }
    pose proof (fitb_ext_conv _ _ (N.of_nat n) W1 Hext Hne) as Hc.
    rewrite (Hj (S m')) in Hc. specialize (Hc Hk). unfold lenN in Hc. lia.
  Qed.

  Lemma inside_count rs css j n : chunks_of rs css ->
    (length (jwrite crc p [] (firstn j rs)) <= n)%nat ->
    (length (concat (firstn j css)) <=
       fitb p (l_closed (layout p rs)) (l_open (layout p rs)) (N.of_nat n))%nat.
  Proof.
    intros (H & Hj) Hlen. rewrite (jwrite_layout crc p pok) in Hlen.
    destruct (layout_split crc p pok rs j) as (W1 & _ & Hext).
    rewrite <- (Hj j). apply (fitb_ext crc p pok _ _ _ W1 Hext). unfold lenN. lia.
  Qed.

  (* m records have all their chunks among the chunks counted inside the first n bytes and the next record has
     not: m is the number of records written wholly inside the first n bytes *)
  Lemma count_exact fl rs css m n : chunks_of rs css -> (m <= length rs)%nat ->
    let K := fitb p (l_closed (layout p rs)) (l_open (layout p rs)) (N.of_nat n) in
    (length (concat (firstn m css)) <= K)%nat ->
    ((m < length rs)%nat -> (K < length (concat (firstn (S m) css)))%nat) ->
    (length (jwrite crc p fl (firstn m rs)) <= n)%nat /\
    (forall j, (j <= length rs)%nat -> (length (jwrite crc p fl (firstn j rs)) <= n)%nat -> (j <= m)%nat).
  Proof.
    intros Hcs Hm K Hk Hk2. split.
    - rewrite (flush_irrelevant crc p pok fl []). apply (count_inside rs css m n Hcs Hm Hk).
    - intros j Hjl Hlen. rewrite (flush_irrelevant crc p pok fl []) in Hlen.
      pose proof (inside_count rs css j n Hcs Hlen) as Hin.
      destruct (Nat.le_gt_cases j m) as [Hle|Hgt]; [exact Hle|exfalso].
      specialize (Hk2 ltac:(lia)). pose proof (concat_firstn_mono css (S m) j ltac:(lia)). fold K in Hin. lia.
  Qed.

  Lemma recs_of_recs rs : recs_of (map Rec rs) = rs.
  Proof. induction rs as [|r rs IH]; [reflexivity|]. cbn. f_equal. exact IH. Qed.

  Lemma recs_of_end strict t : end_ok strict t -> recs_of t = [].
  Proof. intros [->| ->]; [reflexivity|]. destruct strict; reflexivity. Qed.

  (* two descriptions of one result: a prefix of j records, and m records then no further one *)
  Lemma count_le (rs : list bytes) j m t t' :
    (j <= length rs)%nat -> (m <= length rs)%nat -> recs_of t = [] ->
    map Rec (firstn m rs) ++ t = map Rec (firstn j rs) ++ t' -> (j <= m)%nat.
  Proof.
    intros Hj Hm Ht E. apply (f_equal recs_of) in E.
    rewrite !recs_of_app, !recs_of_recs, Ht, app_nil_r in E.
    apply (f_equal (@length bytes)) in E. rewrite app_length, !firstn_length in E. lia.
  Qed.

  Theorem truncation_exact strict ck fl rs n :
    exists m t,
      jread crc p strict ck (firstn n (jwrite crc p fl rs)) = map Rec (firstn m rs) ++ t /\
      end_ok strict t /\
      (m <= length rs)%nat /\
      (length (jwrite crc p fl (firstn m rs)) <= n)%nat /\
      (forall j, (j <= length rs)%nat ->
                 (length (jwrite crc p fl (firstn j rs)) <= n)%nat -> (j <= m)%nat).
  Proof.
    destruct (chunks_of_ex rs) as (css & Hcs).
    unfold jread. rewrite (reader_factor crc p pok), (jwrite_layout crc p pok).
    destruct (layout_chunks crc p pok rs) as ((W1 & W2) & _).
    rewrite (firstn_takeN n). unfold render_lay.
    destruct (stream_events_cut_gen crc p pok ck _ _ W1 W2 (N.of_nat n)) as (tail & Ek & Ht).
    rewrite Ek. fold (lay_chunks (layout p rs)). rewrite (chunks_of_all rs css Hcs).
    destruct (assemble_cut crc p pok strict rs css (proj1 Hcs) (fitb p (l_closed (layout p rs)) (l_open (layout p rs)) (N.of_nat n)) tail)
      as (m & t & Em & Hm & Hk & Hk2 & Hrest).
    exists m, t. split; [exact Em|]. split; [exact (cut_rest_end crc p pok strict tail t Ht Hrest)|].
    split; [exact Hm|]. exact (count_exact fl rs css m n Hcs Hm Hk Hk2).
  Qed.

  (* d agrees with the written stream on its first n bytes (n = first altered byte; for damage
     confined to blocks b, b+1, ... take n = b * blockSize): every record written wholly inside
     those bytes is in the prefix the strict reader yields *)
  Theorem damage_strict_complete ck fl rs d n j :
    no_forgery crc p ck rs d = true ->
    firstn n d = firstn n (jwrite crc p fl rs) ->
    (j <= length rs)%nat ->
    (length (jwrite crc p fl (firstn j rs)) <= n)%nat ->
    exists m t, jread crc p true ck d = map Rec (firstn m rs) ++ t /\ (t = [] \/ t = [Err]) /\
                (j <= m)%nat /\ (m <= length rs)%nat.
  Proof.
    intros HN Ed Hj Hlen.
    destruct (damage_strict crc p pok ck rs d HN) as (m0 & t & Em & Ht).
    destruct (prefix_complete true ck fl rs d n j Ed Hlen) as (t' & E').
    exists (Nat.min m0 (length rs)), t. rewrite ListLemmas.firstn_min.
    split; [exact Em|]. split; [exact Ht|]. split; [|lia].
    rewrite Em in E'. rewrite <- (ListLemmas.firstn_min m0) in E'.
    eapply count_le; [exact Hj| |apply (recs_of_end true); exact Ht|exact E']. lia.
  Qed.

  Lemma select_nil_l {A} (l : list A) : select [] l = [].
  Proof. reflexivity. Qed.
  Lemma select_nil_r {A} keep : @select A keep [] = [].
  Proof. destruct keep; reflexivity. Qed.

  Lemma select_app {A} (a : list A) : forall keep b,
    select keep (a ++ b) = select (firstn (length a) keep) a ++ select (skipn (length a) keep) b.
  Proof.
    induction a as [|x a IH]; intros keep b.
    - cbn [length firstn skipn app]. reflexivity.
    - destruct keep as [|k keep]; [reflexivity|].
      cbn [length firstn skipn app select]. rewrite IH. destruct k; reflexivity.
  Qed.

  Lemma select_length {A} (a : list A) : forall keep, (length (select keep a) <= length a)%nat.
  Proof.
    induction a as [|x a IH]; intros keep; [rewrite select_nil_r; cbn; lia|].
    destruct keep as [|k keep]; [cbn; lia|]. cbn [select]. specialize (IH keep).
    destruct k; cbn [length]; lia.
  Qed.

  Lemma select_suffix {A} (b : list A) : forall keep x t,
    select keep b = x ++ t -> exists keep', t = select keep' b.
  Proof.
    induction b as [|y b IH]; intros keep x t E.
    - rewrite select_nil_r in E. symmetry in E. apply app_eq_nil in E as (_ & ->). exists []. reflexivity.
    - destruct keep as [|k keep].
      + cbn in E. symmetry in E. apply app_eq_nil in E as (_ & ->). exists []. reflexivity.
      + cbn [select] in E. destruct k.
        * destruct x as [|y' x]; cbn [app] in E.
          -- exists (true :: keep). cbn [select]. now rewrite E.
          -- injection E as _ E. destruct (IH keep x t E) as (k' & ->). exists (false :: k'). reflexivity.
        * destruct (IH keep x t E) as (k' & ->). exists (false :: k'). reflexivity.
  Qed.

  Lemma app_eq_short {A} (sa : list A) : forall a sb t,
    sa ++ sb = a ++ t -> (length sa <= length a)%nat -> exists a2, sb = a2 ++ t.
  Proof.
    induction sa as [|x sa IH]; intros a sb t E Hl.
    - exists a. exact E.
    - destruct a as [|y a]; [cbn in Hl; lia|]. cbn [app] in E. injection E as _ E.
      apply (IH a sb t E). cbn in Hl. lia.
  Qed.

  (* Tolerant mode, d agrees with the written stream on its first n bytes and the checksum
     detects whatever else happened to it: the records yielded are the records written wholly
     inside the first n bytes, all of them, followed by a sub-sequence of the others. *)
  Theorem damage_contained_prefix ck fl rs d n j :
    no_forgery crc p ck rs d = true ->
    firstn n d = firstn n (jwrite crc p fl rs) ->
    (length (jwrite crc p fl (firstn j rs)) <= n)%nat ->
    exists keep, recs_of (jread crc p false ck d) = firstn j rs ++ select keep (skipn j rs).
  Proof.
    intros HN Ed Hlen.
    destruct (damage_contained crc p pok ck fl rs d HN) as (keep & _ & Ek & _).
    destruct (prefix_complete false ck fl rs d n j Ed Hlen) as (t & E).
    rewrite E, recs_of_app, recs_of_recs in Ek.
    rewrite <- (firstn_skipn j rs) in Ek at 2. rewrite select_app in Ek.
    symmetry in Ek. apply app_eq_short in Ek; [|apply select_length].
    destruct Ek as (a2 & Ek). apply select_suffix in Ek as (keep' & Ek).
    exists keep'. rewrite E, recs_of_app, recs_of_recs, Ek. reflexivity.
  Qed.

  (* the crash images: the stream cut at n, then any bytes (zeros, garbage) *)
  Lemma firstn_cut_tail {A} n (s tail : list A) :
    (n <= length s)%nat -> firstn n (firstn n s ++ tail) = firstn n s.
  Proof.
    intros H. rewrite firstn_app, firstn_firstn, Nat.min_id, firstn_length.
    replace (n - Nat.min n (length s))%nat with 0%nat by lia. cbn. apply app_nil_r.
  Qed.

  (* any tail, either mode, no hypothesis: the records wholly inside the cut come first *)
  Theorem tail_complete strict ck fl rs n tail j :
    (n <= length (jwrite crc p fl rs))%nat ->
    (length (jwrite crc p fl (firstn j rs)) <= n)%nat ->
    exists t, jread crc p strict ck (firstn n (jwrite crc p fl rs) ++ tail) = map Rec (firstn j rs) ++ t.
  Proof. intros Hn Hlen. eapply prefix_complete; [apply firstn_cut_tail; exact Hn|exact Hlen]. Qed.

  (* ... and under no_forgery nothing is invented after them *)
  Theorem tail_contained ck fl rs n tail j :
    (n <= length (jwrite crc p fl rs))%nat ->
    no_forgery crc p ck rs (firstn n (jwrite crc p fl rs) ++ tail) = true ->
    (length (jwrite crc p fl (firstn j rs)) <= n)%nat ->
    exists keep,
      recs_of (jread crc p false ck (firstn n (jwrite crc p fl rs) ++ tail))
      = firstn j rs ++ select keep (skipn j rs).
  Proof.
    intros Hn HN Hlen. eapply damage_contained_prefix; [exact HN|apply firstn_cut_tail; exact Hn|exact Hlen].
  Qed.
End CutProofs.
