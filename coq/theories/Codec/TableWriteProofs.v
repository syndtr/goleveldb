(* Codec/TableWriteProofs.v — Stage C, the writer: what Writer.Append / Close produce.
   The run of the writer over a strictly increasing list keeps an invariant ([winv]) relating its
   state to a ghost decomposition of the input into finished blocks, the separators already given
   to the index writer, and the block being built; the separators satisfy
   last key of block i <= sep i < first key of block i+1   (from the comparer contract; the Go test
   len(key) == 0 for "no next key" needs the empty key to be least).  Close leaves the state
   [closed]; a block written by writeBlock reads back ([read_wblock]); the file Close assembles,
   opened by NewReader, is a well-formed table holding exactly the built blocks ([table_written]).
   The file ends with what a reader of a well-formed table answers in terms of its pairs
   ([wf_roundtrip]) and the write/read round trip without compression ([table_roundtrip]). *)
From GL Require Import Base.BytesProofs Base.VarintProofs Base.OrderProofs Codec.BlockEnc Codec.BlockProofs
  Codec.TableProofs Codec.TableSizes.
From GL Require Mem.ListLemmas.
From Coq Require Import ZArith Lia ZifyN ZifyNat ZifyBool.

Local Open Scope N_scope.

Notation kv := (bytes * bytes)%type (only parsing).

(* first and last key of a block *)
Definition fk (b : list kv) : bytes := fst (hd ([], []) b).
Definition lk (b : list kv) : bytes := fst (last b ([], [])).

Lemma last_key_lk (b : list kv) prev : b <> [] -> last_key prev b = lk b.
Proof.
  intros H. destruct (exists_last H) as (l & [k v] & ->). unfold last_key, lk.
  rewrite rev_app_distr, last_last. reflexivity.
Qed.

Section Writer.
  Variable tp : tparams.
  Variable crc : bytes -> N.
  Variable compress : bytes -> bytes.
  Variable c : comparer.
  Hypothesis c_ok : comparer_ok c.
  Hypothesis empty_least : forall k, cmp c [] k <> Gt.
  Variable blockSize : N.
  Variable ri : N.
  Hypothesis ri_pos : 1 <= ri.
  Variable snappy : bool.

  Local Notation wblock off content := (write_block tp crc compress off content snappy).
  Local Notation app1 w k v := (tw_append tp crc compress c blockSize ri snappy w k v).

  (* bytes and handle length a block contributes *)
  Definition wbytes (b : list kv) : bytes := fst (wblock 0 (block_build ri b)).
  Definition plen (b : list kv) : N := bh_len (snd (wblock 0 (block_build ri b))).

  Lemma write_block_off off content :
    wblock off content = (fst (wblock 0 content), mkBH off (bh_len (snd (wblock 0 content)))).
  Proof. unfold write_block. reflexivity. Qed.

  Fixpoint handles_from (off : N) (bl : list (list kv)) : list bhandle :=
    match bl with
    | [] => []
    | b :: r => mkBH off (plen b) :: handles_from (off + lenN (wbytes b)) r
    end.

  Definition out_of (bl : list (list kv)) : bytes := concat (map wbytes bl).

  Lemma handles_from_app off a b :
    handles_from off (a ++ b) = handles_from off a ++ handles_from (off + lenN (out_of a)) b.
  Proof.
    revert off. induction a as [|x a IH]; intros off; cbn [app handles_from].
    - unfold out_of. cbn. rewrite N.add_0_r. reflexivity.
    - rewrite IH. unfold out_of. cbn [map concat]. rewrite lenN_app. do 3 f_equal. lia.
  Qed.

  Lemma handles_from_length off bl : length (handles_from off bl) = length bl.
  Proof. revert off. induction bl as [|b r IH]; intros off; cbn [handles_from length]; [reflexivity | rewrite IH; reflexivity]. Qed.

  Record ghost := mkG {
    g_done : list (list kv);      (* finished data blocks *)
    g_seps : list bytes;          (* separators already appended to the index block *)
    g_cur : list kv               (* pairs of the block being built *)
  }.

  Definition g_all (g : ghost) : list (list kv) :=
    g_done g ++ (match g_cur g with [] => [] | _ => [g_cur g] end).

  (* the separator law against the blocks known so far *)
  Definition seps_ok (seps : list bytes) (bl : list (list kv)) : Prop :=
    forall i, (i < length seps)%nat ->
      cmp c (lk (nth i bl [])) (nth i seps []) <> Gt /\
      ((S i < length bl)%nat -> cmp c (nth i seps []) (fk (nth (S i) bl [])) = Lt).

  Definition index_of (seps : list bytes) (hs : list bhandle) : bwriter :=
    bw_append_all 1 bw_empty (combine seps (map encode_bh hs)).

  Record winv (w : twriter) (g : ghost) : Prop := {
    wi_sorted : sorted c (concat (g_done g) ++ g_cur g);
    wi_n : tw_n w = lenN (concat (g_done g) ++ g_cur g);
    wi_ne : Forall (fun b => b <> []) (g_done g);
    wi_out : tw_out w = out_of (g_done g);
    wi_index : tw_index w = index_of (g_seps g) (firstn (length (g_seps g)) (handles_from 0 (g_done g)));
    wi_seps : seps_ok (g_seps g) (g_all g);
    wi_mode :
      (* a finished block waits for its separator *)
      (g_cur g = [] /\ g_done g <> [] /\ S (length (g_seps g)) = length (g_done g) /\
       tw_pending w = last (handles_from 0 (g_done g)) bh0 /\ bh_len (tw_pending w) <> 0 /\
       tw_data w = mkBW [] 0 (lk (last (g_done g) [])) [])
      \/
      (* a block is being built (or nothing has been appended yet / Close has flushed) *)
      (tw_pending w = mkBH 0 0 /\ length (g_seps g) = length (g_done g) /\
       tw_data w = bw_append_all ri (mkBW [] 0 [] []) (g_cur g) /\
       (g_cur g = [] -> g_done g = []))
  }.

  Hypothesis plen_pos : forall b, plen b <> 0.

  Lemma winv_empty : winv tw_empty (mkG [] [] []).
  Proof.
    constructor; cbn [g_done g_seps g_cur tw_empty tw_n tw_out tw_index tw_pending tw_data concat app].
    - exact I.
    - reflexivity.
    - constructor.
    - reflexivity.
    - reflexivity.
    - intros i Hi. cbn in Hi. lia.
    - right. repeat split.
  Qed.

  Lemma sorted_app_last (l : list kv) k v x :
    sorted c (l ++ [(k, v)]) -> In x l -> cmp c (fst x) k = Lt.
  Proof. intros Hs Hin. apply (proj2 (proj2 (sorted_app_inv c c_ok l [(k, v)] Hs)) x (k, v) Hin). left. reflexivity. Qed.

  Lemma lk_in (b : list kv) : b <> [] -> In (last b ([], [])) b.
  Proof.
    intros H. destruct (exists_last H) as (l & x & ->). rewrite last_last. apply in_or_app. right. left. reflexivity.
  Qed.

  Lemma sorted_prefix (a b : list kv) : sorted c (a ++ b) -> sorted c a.
  Proof. intros Hs. apply (sorted_app_inv c c_ok a b Hs). Qed.

  (* the separator chosen by flushPendingBH(key) for a non-empty next key *)
  Lemma flush_sep_law prev key :
    cmp c prev key = Lt ->
    let s := match sep c prev key with Some s => s | None => prev end in
    cmp c prev s <> Gt /\ cmp c s key = Lt.
  Proof.
    intros Hlt. destruct (sep c prev key) as [s|] eqn:E; cbn zeta.
    - apply (sep_ok c c_ok) in E. exact E.
    - split; [apply (OrderProofs.le_refl c c_ok) | exact Hlt].
  Qed.

  Lemma flush_succ_law prev :
    let s := match succ c prev with Some s => s | None => prev end in cmp c prev s <> Gt.
  Proof.
    destruct (succ c prev) as [s|] eqn:E; cbn zeta.
    - apply (succ_ok c c_ok) in E. exact E.
    - apply (OrderProofs.le_refl c c_ok).
  Qed.

  Lemma nth_last {A} (l : list A) d : l <> [] -> nth (length l - 1) l d = last l d.
  Proof.
    intros H. destruct (exists_last H) as (l' & x & ->). rewrite last_last, app_length. cbn [length].
    replace (length l' + 1 - 1)%nat with (length l') by lia. rewrite app_nth2 by lia. rewrite Nat.sub_diag. reflexivity.
  Qed.

  Lemma firstn_handles_snoc (bl : list (list kv)) :
    bl <> [] ->
    firstn (length bl) (handles_from 0 bl) =
    firstn (length bl - 1) (handles_from 0 bl) ++ [last (handles_from 0 bl) bh0].
  Proof.
    intros H. destruct (exists_last H) as (l' & x & ->).
    rewrite handles_from_app. cbn [handles_from]. rewrite app_length. cbn [length].
    replace (length l' + 1 - 1)%nat with (length l') by lia.
    rewrite last_last.
    rewrite firstn_app, handles_from_length.
    replace (length l' + 1 - length l')%nat with 1%nat by lia.
    rewrite (firstn_all2 (handles_from 0 l')) by (rewrite handles_from_length; lia).
    rewrite firstn_app, handles_from_length, Nat.sub_diag. cbn [firstn].
    rewrite (firstn_all2 (handles_from 0 l')) by (rewrite handles_from_length; lia).
    rewrite app_nil_r. reflexivity.
  Qed.

  Lemma index_of_snoc seps hs s h : length seps = length hs ->
    bw_append 1 (index_of seps hs) s (encode_bh h) = index_of (seps ++ [s]) (hs ++ [h]).
  Proof using ri ri_pos.
    intros Hl. unfold index_of, bw_append_all.
    rewrite map_app. cbn [map]. rewrite ListLemmas.combine_app by (rewrite map_length; exact Hl).
    cbn [combine]. rewrite fold_left_app. reflexivity.
  Qed.

  (* flushPendingBH(key) in the first mode of wi_mode, for a next key above everything appended so far *)
  Lemma flush_pending_next w g key :
    winv w g -> g_cur g = [] -> g_done g <> [] -> S (length (g_seps g)) = length (g_done g) ->
    tw_pending w = last (handles_from 0 (g_done g)) bh0 -> bh_len (tw_pending w) <> 0 ->
    tw_data w = mkBW [] 0 (lk (last (g_done g) [])) [] ->
    key <> [] -> cmp c (lk (last (g_done g) [])) key = Lt ->
    let s := match sep c (lk (last (g_done g) [])) key with Some s => s | None => lk (last (g_done g) []) end in
    let w' := tw_flush_pending c w key in
    tw_out w' = tw_out w /\ tw_n w' = tw_n w /\ tw_pending w' = mkBH 0 0 /\
    tw_data w' = mkBW [] 0 [] [] /\ tw_curkeys w' = tw_curkeys w /\ tw_fblocks w' = tw_fblocks w /\
    tw_index w' = index_of (g_seps g ++ [s]) (firstn (length (g_done g)) (handles_from 0 (g_done g))).
  Proof.
    intros Hinv Hc Hd Hl Hp Hpl Hdata Hk Hlt s w'.
    unfold w', tw_flush_pending.
    replace (bh_len (tw_pending w) =? 0) with false by lia.
    rewrite Hdata. cbn [bw_prev bw_buf bw_n bw_restarts tw_out tw_n tw_pending tw_data tw_curkeys tw_fblocks tw_index].
    destruct key as [|k0 kr]; [congruence|]. fold s.
    repeat split.
    rewrite (wi_index w g Hinv), Hp.
    rewrite index_of_snoc.
    - f_equal. rewrite (firstn_handles_snoc (g_done g) Hd). f_equal. f_equal. lia.
    - rewrite firstn_length, handles_from_length. lia.
  Qed.

  Lemma seps_ok_prefix seps bl bl' :
    seps_ok seps bl -> (length seps <= length bl)%nat ->
    (forall i, (i < length bl)%nat -> nth i bl' [] = nth i bl []) ->
    (length bl <= length bl')%nat ->
    (forall i, (i < length seps)%nat -> S i = length bl -> (S i < length bl')%nat ->
       cmp c (nth i seps []) (fk (nth (S i) bl' [])) = Lt) ->
    seps_ok seps bl'.
  Proof.
    intros Hok Hl Hsame Hlen Hnew i Hi. destruct (Hok i Hi) as [H1 H2]. split.
    - rewrite Hsame by lia. exact H1.
    - intros HS. destruct (Nat.lt_ge_cases (S i) (length bl)) as [L|L].
      + rewrite Hsame by lia. apply H2. exact L.
      + apply Hnew; try assumption. lia.
  Qed.

  Lemma bw_append_all_snoc w l k v :
    bw_append ri (bw_append_all ri w l) k v = bw_append_all ri w (l ++ [(k, v)]).
  Proof. unfold bw_append_all. rewrite fold_left_app. reflexivity. Qed.

  Lemma fk_app_cons (x : kv) l l' : fk ((x :: l) ++ l') = fk (x :: l).
  Proof. reflexivity. Qed.

  Lemma lk_snoc (l : list kv) k v : lk (l ++ [(k, v)]) = k.
  Proof. unfold lk. rewrite last_last. reflexivity. Qed.

  Lemma last_key_of_sorted (done : list (list kv)) (cur : list kv) :
    Forall (fun b => b <> []) done -> (cur = [] -> done <> []) ->
    In (last (match cur with [] => last done [] | _ => cur end) ([], [])) (concat done ++ cur).
  Proof.
    intros Hne Hc. destruct cur as [|x cur'].
    - rewrite app_nil_r. specialize (Hc eq_refl).
      apply in_concat. exists (last done []). split.
      + destruct (exists_last Hc) as (l & b & ->). rewrite last_last. apply in_or_app. right. left. reflexivity.
      + apply lk_in. rewrite Forall_forall in Hne. apply Hne.
        destruct (exists_last Hc) as (l & b & ->). rewrite last_last. apply in_or_app. right. left. reflexivity.
    - apply in_or_app. right. apply lk_in. discriminate.
  Qed.

  Theorem append_inv w g k v :
    winv w g -> sorted c ((concat (g_done g) ++ g_cur g) ++ [(k, v)]) ->
    exists w' g', app1 w k v = Some w' /\ winv w' g' /\
      concat (g_done g') ++ g_cur g' = (concat (g_done g) ++ g_cur g) ++ [(k, v)].
  Proof.
    intros Hinv Hs.
    pose proof (wi_ne w g Hinv) as Hne.
    assert (Hbelow : forall x, In x (concat (g_done g) ++ g_cur g) -> cmp c (fst x) k = Lt)
      by (intros x Hin; apply (sorted_app_last _ k v x Hs Hin)).
    (* phase 1: the order check and flushPendingBH leave a building-mode state *)
    assert (P1 : exists seps1,
      let w1 := tw_flush_pending c w k in
      (if (0 <? tw_n w) && negb (match cmp c (bw_prev (tw_data w)) k with Lt => true | _ => false end) then false else true) = true /\
      tw_out w1 = tw_out w /\ tw_n w1 = tw_n w /\ tw_pending w1 = mkBH 0 0 /\
      tw_data w1 = bw_append_all ri (mkBW [] 0 [] []) (g_cur g) /\
      tw_index w1 = index_of seps1 (firstn (length seps1) (handles_from 0 (g_done g))) /\
      length seps1 = length (g_done g) /\
      seps_ok seps1 (g_done g ++ [g_cur g ++ [(k, v)]])).
    { destruct (wi_mode w g Hinv) as [(Hc & Hd & Hl & Hp & Hpl & Hdata) | (Hp & Hl & Hdata & Hcd)].
      - (* pending *)
        assert (Hlast : In (last (last (g_done g) []) ([], [])) (concat (g_done g) ++ g_cur g)).
        { pose proof (last_key_of_sorted (g_done g) (g_cur g) Hne ltac:(intros _; exact Hd)) as H. rewrite Hc in H. rewrite Hc. exact H. }
        pose proof (Hbelow _ Hlast) as Hlt. fold (lk (last (g_done g) [])) in Hlt.
        assert (Hk : k <> []).
        { intros ->. apply (cmp_lt_gt c c_ok) in Hlt. apply (empty_least _ Hlt). }
        destruct (flush_pending_next w g k Hinv Hc Hd Hl Hp Hpl Hdata Hk Hlt) as (E1 & E2 & E3 & E4 & _ & _ & E7).
        set (s := match sep c (lk (last (g_done g) [])) k with Some s => s | None => lk (last (g_done g) []) end) in *.
        exists (g_seps g ++ [s]). cbv zeta.
        split.
        { rewrite Hdata. cbn [bw_prev]. rewrite Hlt. rewrite andb_false_r. reflexivity. }
        split; [exact E1|]. split; [exact E2|]. split; [exact E3|]. split; [rewrite E4, Hc; reflexivity|].
        split; [rewrite E7, app_length; cbn [length]; f_equal; f_equal; lia|].
        split; [rewrite app_length; cbn [length]; lia|].
        (* the separator law, extended by s *)
        pose proof (flush_sep_law (lk (last (g_done g) [])) k Hlt) as [Hs1 Hs2]. fold s in Hs1, Hs2.
        rewrite Hc. cbn [app].
        intros i Hi. rewrite app_length in Hi. cbn [length] in Hi.
        destruct (Nat.eq_dec i (length (g_seps g))) as [->|Hni].
        + assert (Esep : nth (length (g_seps g)) (g_seps g ++ [s]) [] = s)
            by (rewrite app_nth2 by lia; rewrite Nat.sub_diag; reflexivity).
          assert (Eblk : nth (length (g_seps g)) (g_done g ++ [[(k, v)]]) [] = last (g_done g) []).
          { rewrite app_nth1 by lia. replace (length (g_seps g)) with (length (g_done g) - 1)%nat by lia.
            apply nth_last. exact Hd. }
          assert (Enext : nth (S (length (g_seps g))) (g_done g ++ [[(k, v)]]) [] = [(k, v)]).
          { rewrite Hl. rewrite app_nth2 by lia. rewrite Nat.sub_diag. reflexivity. }
          rewrite Esep, Eblk, Enext. split; [exact Hs1 | intros _; exact Hs2].
        + assert (Hi' : (i < length (g_seps g))%nat) by lia.
          destruct (wi_seps w g Hinv i Hi') as [H1 H2]. unfold g_all in H1, H2. rewrite Hc, app_nil_r in H1, H2.
          rewrite (app_nth1 (g_seps g) [s] [] Hi').
          rewrite (app_nth1 (g_done g) [[(k, v)]] []) by lia. split; [exact H1|].
          intros _. rewrite (app_nth1 (g_done g) [[(k, v)]] []) by lia. apply H2. lia.
      - (* building *)
        exists (g_seps g). cbv zeta. unfold tw_flush_pending. rewrite Hp. cbn [bh_len N.eqb].
        split.
        { destruct (N.ltb_spec 0 (tw_n w)) as [Hpos|Hz]; [|reflexivity]. cbn [andb].
          assert (Hcur : g_cur g <> []).
          { intros E. specialize (Hcd E). rewrite (wi_n w g Hinv), E, Hcd in Hpos. cbn in Hpos. lia. }
          rewrite Hdata, bw_append_all_spec. cbn [bw_prev]. rewrite (last_key_lk _ _ Hcur).
          assert (Hlt : cmp c (lk (g_cur g)) k = Lt).
          { apply (Hbelow (last (g_cur g) ([], []))). apply in_or_app. right. apply lk_in. exact Hcur. }
          rewrite Hlt. reflexivity. }
        split; [reflexivity|]. split; [reflexivity|]. split; [exact Hp|]. split; [exact Hdata|].
        split; [exact (wi_index w g Hinv)|]. split; [exact Hl|].
        (* the law is unchanged: the block being built keeps its first key *)
        pose proof (wi_seps w g Hinv) as Hok. unfold g_all in Hok.
        destruct (g_cur g) as [|x0 cur0] eqn:Ec.
        + rewrite (Hcd eq_refl) in *. intros i Hi. rewrite Hl in Hi. cbn in Hi. lia.
        + intros i Hi. destruct (Hok i Hi) as [H1 H2]. split.
          * destruct (Nat.lt_ge_cases i (length (g_done g))) as [L|L]; [|lia].
            rewrite app_nth1 in * by lia. exact H1.
          * intros HS. rewrite app_length in HS, H2. cbn [length] in HS, H2. specialize (H2 HS).
            destruct (Nat.lt_ge_cases (S i) (length (g_done g))) as [L|L].
            -- rewrite app_nth1 in * by lia. exact H2.
            -- rewrite app_nth2 in * by lia. replace (S i - length (g_done g))%nat with 0%nat in * by lia.
               cbn [nth] in *. exact H2. }
    destruct P1 as (seps1 & Hchk & E1 & E2 & E3 & E4 & E5 & E6 & Hok1).
    set (w1 := tw_flush_pending c w k) in *.
    set (cur' := g_cur g ++ [(k, v)]).
    unfold tw_append.
    destruct ((0 <? tw_n w) && negb (match cmp c (bw_prev (tw_data w)) k with Lt => true | _ => false end)); [discriminate|].
    fold w1. cbn [tw_out tw_data tw_index tw_pending tw_n tw_curkeys tw_fblocks].
    rewrite E4, bw_append_all_snoc. fold cur'.
    assert (Hcur' : cur' <> []) by (unfold cur'; destruct (g_cur g); discriminate).
    assert (Hsorted' : sorted c (concat (g_done g) ++ cur')) by (unfold cur'; rewrite app_assoc; exact Hs).
    destruct (blockSize <=? bw_bytes_len (bw_append_all ri (mkBW [] 0 [] []) cur')) eqn:Ecut.
    - (* the block is finished *)
      unfold tw_finish_block. cbn [tw_out tw_data tw_index tw_pending tw_n tw_curkeys tw_fblocks].
      assert (Efin : bw_finish (bw_append_all ri (mkBW [] 0 [] []) cur') = block_build ri cur') by reflexivity.
      rewrite Efin, (write_block_off (lenN (tw_out w1)) (block_build ri cur')).
      fold (wbytes cur'). fold (plen cur').
      eexists. exists (mkG (g_done g ++ [cur']) seps1 []). split; [reflexivity|]. split.
      + constructor; cbn [g_done g_seps g_cur tw_out tw_data tw_index tw_pending tw_n].
        * rewrite concat_app. cbn [concat]. rewrite !app_nil_r. exact Hsorted'.
        * rewrite E2, (wi_n w g Hinv), concat_app. cbn [concat]. rewrite !app_nil_r.
          unfold cur'. rewrite !lenN_app. change (lenN [(k, v)]) with 1. lia.
        * apply Forall_app. split; [exact Hne | constructor; [exact Hcur' | constructor]].
        * rewrite E1, (wi_out w g Hinv). unfold out_of. rewrite map_app, concat_app. cbn [map concat]. rewrite app_nil_r. reflexivity.
        * rewrite E5. f_equal. rewrite handles_from_app, firstn_app, handles_from_length, E6, Nat.sub_diag.
          cbn [firstn]. rewrite app_nil_r. reflexivity.
        * unfold g_all. cbn [g_done g_cur]. rewrite app_nil_r. exact Hok1.
        * left. split; [reflexivity|]. split; [destruct (g_done g); discriminate|].
          split; [rewrite app_length; cbn [length]; lia|].
          rewrite handles_from_app. cbn [handles_from]. rewrite !last_last.
          split; [rewrite E1, (wi_out w g Hinv); reflexivity|].
          split; [cbn [bh_len]; apply plen_pos|].
          unfold bw_reset. rewrite bw_append_all_spec. cbn [bw_prev].
          rewrite (last_key_lk _ _ Hcur'). reflexivity.
      + cbn [g_done g_cur]. rewrite concat_app. cbn [concat]. rewrite !app_nil_r. unfold cur'. rewrite app_assoc. reflexivity.
    - (* the block continues *)
      eexists. exists (mkG (g_done g) seps1 cur'). split; [reflexivity|]. split.
      + constructor; cbn [g_done g_seps g_cur tw_out tw_data tw_index tw_pending tw_n].
        * exact Hsorted'.
        * rewrite E2, (wi_n w g Hinv). unfold cur'. rewrite !lenN_app. change (lenN [(k, v)]) with 1. lia.
        * exact Hne.
        * rewrite E1. exact (wi_out w g Hinv).
        * exact E5.
        * unfold g_all. cbn [g_done g_cur]. destruct cur' eqn:Ec; [congruence|]. rewrite <- Ec. exact Hok1.
        * right. split; [exact E3|]. split; [exact E6|]. split; [reflexivity|]. intros E. congruence.
      + cbn [g_done g_cur]. unfold cur'. rewrite app_assoc. reflexivity.
  Qed.

  Theorem append_all_inv kvs : forall w g,
    winv w g -> sorted c ((concat (g_done g) ++ g_cur g) ++ kvs) ->
    exists w' g', tw_append_all tp crc compress c blockSize ri snappy w kvs = Some w' /\ winv w' g' /\
      concat (g_done g') ++ g_cur g' = (concat (g_done g) ++ g_cur g) ++ kvs.
  Proof.
    induction kvs as [|[k v] r IH]; intros w g Hinv Hs; cbn [tw_append_all].
    - exists w, g. rewrite app_nil_r. auto.
    - assert (Hs1 : sorted c ((concat (g_done g) ++ g_cur g) ++ [(k, v)])).
      { apply (sorted_prefix _ r). rewrite <- app_assoc. exact Hs. }
      destruct (append_inv w g k v Hinv Hs1) as (w1 & g1 & E1 & Hinv1 & Ep). rewrite E1.
      destruct (IH w1 g1 Hinv1) as (w' & g' & E & Hinv' & Ep').
      + rewrite Ep, <- app_assoc. exact Hs.
      + exists w', g'. split; [exact E|]. split; [exact Hinv'|]. rewrite Ep', Ep, <- app_assoc. reflexivity.
  Qed.
End Writer.

Section ReadBack.
  Variable tp : tparams.
  Hypothesis tp_ok : tparams_ok tp.
  Variable crc : bytes -> N.
  Hypothesis crc_bound : forall b, crc b < 2 ^ 32.
  Variable compress : bytes -> bytes.
  Variable decompress : bytes -> option bytes.
  Hypothesis codec_ok : forall x, decompress (compress x) = Some x.

  Lemma nth_app_mid {A} (a : list A) x b d : nth (N.to_nat (lenN a)) (a ++ x :: b) d = x.
  Proof. unfold lenN. rewrite Nat2N.id. rewrite app_nth2 by lia. rewrite Nat.sub_diag. reflexivity. Qed.

  (* a block written by writeBlock is read back by readRawBlock, with or without verification *)
  Lemma read_wblock pre content post sn verify :
    let bsh := write_block tp crc compress (lenN pre) content sn in
    lenN (fst bsh) < 2 ^ 62 ->
    read_raw_block tp crc decompress (pre ++ fst bsh ++ post) (snd bsh) verify = Ok content.
  Proof.
    destruct tp_ok as (Htl & _ & _ & _ & Hty & _).
    unfold write_block. cbv zeta.
    set (payload := if sn then compress content else content).
    set (ty := if sn then tp_typeSnappy tp else tp_typeNone tp).
    assert (Eb : (if sn then compress content ++ [tp_typeSnappy tp] else content ++ [tp_typeNone tp]) = payload ++ [ty])
      by (unfold payload, ty; destruct sn; reflexivity).
    rewrite Eb. cbn [fst snd]. intros Hsz.
    set (crcv := crc (payload ++ [ty])).
    assert (Hl1 : lenN (payload ++ [ty]) = lenN payload + 1) by (rewrite lenN_app; reflexivity).
    rewrite lenN_app, Hl1, lenN_le32 in Hsz.
    unfold read_raw_block. cbn [bh_off bh_len]. rewrite Hl1, Htl.
    replace (lenN payload + 1 - 1) with (lenN payload) by lia.
    assert (B : 2 ^ 62 < 2 ^ 63) by (apply N.pow_lt_mono_r; lia).
    rewrite two63_eq. replace (2 ^ 63 <=? lenN payload + 5) with false by lia.
    assert (Eraw : sliceN (lenN pre) (lenN pre + lenN payload + 5) (pre ++ ((payload ++ [ty]) ++ le32 crcv) ++ post)
                   = payload ++ [ty] ++ le32 crcv).
    { replace (lenN pre + lenN payload + 5) with (lenN pre + lenN (payload ++ [ty] ++ le32 crcv))
        by (rewrite !lenN_app, lenN_le32; change (lenN [ty]) with 1; lia).
      rewrite <- (app_assoc payload). apply sliceN_app3. }
    rewrite Eraw.
    assert (Hlr : lenN (payload ++ [ty] ++ le32 crcv) = lenN payload + 5)
      by (rewrite !lenN_app, lenN_le32; change (lenN [ty]) with 1; lia).
    rewrite Hlr. replace (lenN payload + 5 <? lenN payload + 5) with false by lia.
    assert (Edrop : dropN (lenN payload + 1) (payload ++ [ty] ++ le32 crcv) = le32 crcv).
    { rewrite app_assoc. rewrite <- Hl1. apply dropN_app. }
    assert (Etake : takeN (lenN payload + 1) (payload ++ [ty] ++ le32 crcv) = payload ++ [ty]).
    { rewrite app_assoc. rewrite <- Hl1. apply takeN_app. }
    rewrite Edrop, Etake, (le32_decode crcv (crc_bound _)). fold crcv. rewrite N.eqb_refl. cbn [negb]. rewrite andb_false_r.
    change ([ty] ++ le32 crcv) with (ty :: le32 crcv). rewrite nth_app_mid.
    change (ty :: le32 crcv) with ([ty] ++ le32 crcv).
    assert (Etk : takeN (lenN payload) (payload ++ [ty] ++ le32 crcv) = payload) by apply takeN_app.
    rewrite Etk. unfold ty, payload. destruct sn.
    - replace (tp_typeSnappy tp =? tp_typeNone tp) with false by (symmetry; apply N.eqb_neq; congruence).
      rewrite N.eqb_refl, codec_ok. reflexivity.
    - rewrite N.eqb_refl. reflexivity.
  Qed.
End ReadBack.

Section Close.
  Variable tp : tparams.
  Variable crc : bytes -> N.
  Variable compress : bytes -> bytes.
  Variable c : comparer.
  Hypothesis c_ok : comparer_ok c.
  Hypothesis empty_least : forall k, cmp c [] k <> Gt.
  Variable blockSize : N.
  Variable ri : N.
  Hypothesis ri_pos : 1 <= ri.
  Variable snappy : bool.
  Hypothesis plen_pos : forall b, plen tp crc compress ri snappy b <> 0.

  Local Notation wbytes := (wbytes tp crc compress ri snappy).
  Local Notation plen := (plen tp crc compress ri snappy).
  Local Notation handles_from := (handles_from tp crc compress ri snappy).
  Local Notation out_of := (out_of tp crc compress ri snappy).
  Local Notation winv := (winv tp crc compress c ri snappy).

  (* flushPendingBH in general: the pending handle gets its separator *)
  Lemma flush_pending_gen w bl seps prev key :
    bl <> [] -> S (length seps) = length bl ->
    tw_pending w = last (handles_from 0 bl) bh0 -> bh_len (tw_pending w) <> 0 ->
    tw_data w = mkBW [] 0 prev [] ->
    tw_index w = index_of seps (firstn (length seps) (handles_from 0 bl)) ->
    let s := match (match key with [] => succ c prev | _ => sep c prev key end) with Some s => s | None => prev end in
    let w' := tw_flush_pending c w key in
    tw_out w' = tw_out w /\ tw_n w' = tw_n w /\ tw_pending w' = mkBH 0 0 /\
    tw_data w' = mkBW [] 0 [] [] /\ tw_fblocks w' = tw_fblocks w /\
    tw_index w' = index_of (seps ++ [s]) (handles_from 0 bl).
  Proof.
    intros Hd Hl Hp Hpl Hdata Hidx s w'. unfold w', tw_flush_pending.
    replace (bh_len (tw_pending w) =? 0) with false by lia.
    rewrite Hdata. cbn [bw_prev bw_buf bw_n bw_restarts tw_out tw_n tw_pending tw_data tw_curkeys tw_fblocks tw_index].
    fold s. repeat split.
    rewrite Hidx, Hp, (index_of_snoc ri ri_pos).
    - f_equal. rewrite <- (firstn_all (handles_from 0 bl)) at 3. rewrite handles_from_length.
      rewrite (firstn_handles_snoc tp crc compress ri ri_pos snappy plen_pos bl Hd). f_equal. f_equal. lia.
    - rewrite firstn_length, handles_from_length. lia.
  Qed.

  (* the final law: every block is below its separator, every separator below the next block *)
  Definition seps_final (seps : list bytes) (bl : list (list kv)) : Prop :=
    forall i, (i < length bl)%nat ->
      cmp c (lk (nth i bl [])) (nth i seps []) <> Gt /\
      ((S i < length bl)%nat -> cmp c (nth i seps []) (fk (nth (S i) bl [])) = Lt).

  (* the state Close reaches after writing the last data block and flushing its handle *)
  Record closed (w2 : twriter) (bl : list (list kv)) (seps : list bytes) : Prop := {
    cl_out : tw_out w2 = out_of bl;
    cl_index : tw_index w2 = index_of seps (handles_from 0 bl);
    cl_len : length seps = length bl;
    cl_data : tw_data w2 = mkBW [] 0 [] [];
    cl_ne : bl <> [];
    cl_blocks : Forall (fun b => b <> []) bl \/ bl = [[]];
    cl_law : seps_final seps bl
  }.

  Lemma succ_le prev : cmp c prev (match succ c prev with Some s => s | None => prev end) <> Gt.
  Proof. exact (flush_succ_law c c_ok prev). Qed.

  Theorem close_state w g : winv w g ->
    let w1 := if (0 <? bw_n (tw_data w)) || (tw_n w =? 0) then tw_finish_block tp crc compress snappy w else w in
    let w2 := tw_flush_pending c w1 [] in
    exists bl seps, closed w2 bl seps /\ concat bl = concat (g_done g) ++ g_cur g.
  Proof.
    intros Hinv w1 w2.
    pose proof (wi_ne _ _ _ _ _ _ w g Hinv) as Hne.
    destruct (wi_mode _ _ _ _ _ _ w g Hinv) as [(Hc & Hd & Hl & Hp & Hpl & Hdata) | (Hp & Hl & Hdata & Hcd)].
    - (* a finished block is pending: nothing to finish *)
      assert (Hn : tw_n w <> 0).
      { rewrite (wi_n _ _ _ _ _ _ w g Hinv), Hc, app_nil_r.
        destruct (exists_last Hd) as (l & b & E). rewrite E in *. rewrite concat_app, lenN_app. cbn [concat].
        rewrite app_nil_r. apply Forall_app in Hne as [_ Hb]. inversion Hb as [|? ? Hb1 _]; subst.
        destruct b; [congruence|]. rewrite lenN_cons. lia. }
      assert (Ew1 : w1 = w).
      { unfold w1. rewrite Hdata. cbn [bw_n]. replace (tw_n w =? 0) with false by lia. reflexivity. }
      unfold w2. rewrite Ew1.
      pose proof (wi_index _ _ _ _ _ _ w g Hinv) as Hidx.
      destruct (flush_pending_gen w (g_done g) (g_seps g) (lk (last (g_done g) [])) [] Hd Hl Hp Hpl Hdata Hidx)
        as (E1 & E2 & E3 & E4 & _ & E6).
      set (s := match succ c (lk (last (g_done g) [])) with Some s => s | None => lk (last (g_done g) []) end) in *.
      exists (g_done g), (g_seps g ++ [s]). split; [|rewrite Hc, app_nil_r; reflexivity].
      constructor.
      + rewrite E1. exact (wi_out _ _ _ _ _ _ w g Hinv).
      + exact E6.
      + rewrite app_length. cbn [length]. lia.
      + exact E4.
      + exact Hd.
      + left. exact Hne.
      + pose proof (wi_seps _ _ _ _ _ _ w g Hinv) as Hok. unfold g_all in Hok. rewrite Hc, app_nil_r in Hok.
        intros i Hi. destruct (Nat.eq_dec i (length (g_seps g))) as [->|Hni].
        * rewrite app_nth2 by lia. rewrite Nat.sub_diag. cbn [nth].
          replace (length (g_seps g)) with (length (g_done g) - 1)%nat by lia.
          rewrite (nth_last ri ri_pos (g_done g) [] Hd). split; [apply succ_le | intros; lia].
        * assert (Hi' : (i < length (g_seps g))%nat) by lia.
          rewrite (app_nth1 (g_seps g) [s] [] Hi'). apply Hok. exact Hi'.
    - (* a block is being built, or the table is empty: finish it *)
      assert (Ew1 : w1 = tw_finish_block tp crc compress snappy w).
      { unfold w1. destruct (g_cur g) as [|x0 cur0] eqn:Ec.
        - rewrite (wi_n _ _ _ _ _ _ w g Hinv), Ec, (Hcd eq_refl). cbn. rewrite orb_true_r. reflexivity.
        - rewrite Hdata, bw_append_all_spec. cbn [bw_n]. rewrite lenN_cons.
          replace (0 <? 0 + (1 + lenN cur0)) with true by lia. reflexivity. }
      set (cur := g_cur g) in *.
      assert (Efin : bw_finish (tw_data w) = block_build ri cur) by (rewrite Hdata; reflexivity).
      set (bl := g_done g ++ [cur]).
      assert (Hbl : bl <> []) by (unfold bl; destruct (g_done g); discriminate).
      (* the state after finishBlock *)
      assert (F : tw_out w1 = out_of bl /\ tw_pending w1 = last (handles_from 0 bl) bh0 /\
                  tw_data w1 = mkBW [] 0 (last_key [] cur) [] /\ tw_index w1 = tw_index w).
      { rewrite Ew1. unfold tw_finish_block. rewrite Efin, (write_block_off tp crc compress snappy (lenN (tw_out w)) (block_build ri cur)).
        cbn [tw_out tw_pending tw_data tw_index]. fold (wbytes cur). fold (plen cur).
        split; [|split; [|split]].
        - rewrite (wi_out _ _ _ _ _ _ w g Hinv). unfold bl, TableWriteProofs.out_of. rewrite map_app, concat_app. cbn [map concat]. rewrite app_nil_r. reflexivity.
        - unfold bl. rewrite (handles_from_app tp crc compress ri ri_pos snappy). cbn [TableWriteProofs.handles_from]. rewrite last_last.
          rewrite (wi_out _ _ _ _ _ _ w g Hinv). reflexivity.
        - unfold bw_reset. rewrite Hdata, bw_append_all_spec. cbn [bw_prev]. reflexivity.
        - reflexivity. }
      destruct F as (F1 & F2 & F3 & F4).
      assert (Hidx : tw_index w1 = index_of (g_seps g) (firstn (length (g_seps g)) (handles_from 0 bl))).
      { rewrite F4, (wi_index _ _ _ _ _ _ w g Hinv). f_equal. unfold bl. rewrite (handles_from_app tp crc compress ri ri_pos snappy), firstn_app, handles_from_length, Hl, Nat.sub_diag.
        cbn [firstn]. rewrite app_nil_r. reflexivity. }
      assert (Hpl : bh_len (tw_pending w1) <> 0).
      { rewrite F2. unfold bl. rewrite (handles_from_app tp crc compress ri ri_pos snappy). cbn [TableWriteProofs.handles_from]. rewrite last_last. cbn [bh_len]. apply plen_pos. }
      assert (Hl' : S (length (g_seps g)) = length bl) by (unfold bl; rewrite app_length; cbn [length]; lia).
      destruct (flush_pending_gen w1 bl (g_seps g) (last_key [] cur) [] Hbl Hl' F2 Hpl F3 Hidx)
        as (E1 & E2 & E3 & E4 & _ & E6).
      set (s := match succ c (last_key [] cur) with Some s => s | None => last_key [] cur end) in *.
      exists bl, (g_seps g ++ [s]). split.
      + constructor.
        * unfold w2. rewrite E1. exact F1.
        * exact E6.
        * rewrite app_length. cbn [length]. lia.
        * exact E4.
        * exact Hbl.
        * destruct cur as [|x0 cur0] eqn:Ec.
          -- right. unfold bl. rewrite (Hcd eq_refl). reflexivity.
          -- left. unfold bl. apply Forall_app. split; [exact Hne | constructor; [discriminate | constructor]].
        * pose proof (wi_seps _ _ _ _ _ _ w g Hinv) as Hok. unfold g_all in Hok. fold cur in Hok.
          intros i Hi. destruct (Nat.eq_dec i (length (g_seps g))) as [->|Hni].
          -- rewrite app_nth2 by lia. rewrite Nat.sub_diag. cbn [nth].
             unfold bl. rewrite Hl. rewrite app_nth2 by lia. rewrite Nat.sub_diag. cbn [nth].
             split; [|intros HS; rewrite app_length in HS; cbn [length] in HS; lia].
             destruct cur as [|x0 cur0] eqn:Ec.
             ++ unfold lk, s, last_key. cbn [last rev fst]. apply succ_le.
             ++ rewrite <- (last_key_lk (x0 :: cur0) []) by discriminate. apply succ_le.
          -- assert (Hi' : (i < length (g_seps g))%nat) by (unfold bl in Hi; rewrite app_length in Hi; cbn [length] in Hi; lia).
             rewrite (app_nth1 (g_seps g) [s] [] Hi').
             destruct cur as [|x0 cur0] eqn:Ec.
             ++ (* empty table: no separators yet *) rewrite (Hcd eq_refl) in Hl. cbn in Hl. lia.
             ++ unfold bl. exact (Hok i Hi').
      + unfold bl. rewrite concat_app. cbn [concat]. rewrite app_nil_r. reflexivity.
  Qed.
End Close.

Lemma decode_bh_app h rest : bh_off h < 2 ^ 64 -> bh_len h < 2 ^ 64 ->
  decode_bh (encode_bh h ++ rest) = BhOk h (lenN (encode_bh h)).
Proof.
  intros H1 H2. unfold decode_bh, encode_bh. rewrite <- app_assoc.
  rewrite uvarint_put by exact H1. rewrite dropN_app. rewrite uvarint_put by exact H2.
  destruct h as [o l]; cbn [bh_off bh_len]. rewrite lenN_app. reflexivity.
Qed.

Lemma encode_bh_len h : lenN (encode_bh h) <= 20.
Proof.
  unfold encode_bh. rewrite lenN_app.
  pose proof (put_uvarint_length (bh_off h)). pose proof (put_uvarint_length (bh_len h)). lia.
Qed.

Lemma lenN_repeat {A} (x : A) n : lenN (repeat x n) = N.of_nat n.
Proof. unfold lenN. rewrite repeat_length. reflexivity. Qed.

Lemma block_build_len_pos ri b : 4 <= lenN (block_build ri b).
Proof.
  unfold block_build, bw_finish. rewrite lenN_app, lenN_flat_le32, lenN_app. change (lenN [_]) with 1. lia.
Qed.

(* One Append grows the buffer by the pair and at most three varints, and the restart list by at most one slot;
   summed over a block this is TableSizes.kvsize (block_build_len_le). *)
Lemma bw_append_size ri w k v :
  lenN (bw_buf (bw_append ri w k v)) <= lenN (bw_buf w) + lenN k + lenN v + 30 /\
  lenN (bw_restarts (bw_append ri w k v)) <= lenN (bw_restarts w) + 1.
Proof.
  unfold bw_append. cbn [bw_buf bw_restarts].
  set (nsh := if bw_n w mod ri =? 0 then 0 else shared_prefix_len (bw_prev w) k).
  rewrite !lenN_app, lenN_dropN.
  pose proof (put_uvarint_length nsh). pose proof (put_uvarint_length (lenN k - nsh)).
  pose proof (put_uvarint_length (lenN v)).
  split; [lia|]. destruct (bw_n w mod ri =? 0); [rewrite lenN_app; change (lenN [_]) with 1|]; lia.
Qed.

Lemma bw_append_all_size ri kvs : forall w,
  lenN (bw_buf (bw_append_all ri w kvs)) + 4 * lenN (bw_restarts (bw_append_all ri w kvs))
  <= lenN (bw_buf w) + 4 * lenN (bw_restarts w) + kvsize kvs.
Proof.
  unfold bw_append_all. induction kvs as [|[k v] r IH]; intros w; cbn [fold_left kvsize fold_right fst snd].
  - lia.
  - specialize (IH (bw_append ri w k v)). pose proof (bw_append_size ri w k v). fold (kvsize r). lia.
Qed.

Lemma block_build_len_le ri kvs : lenN (block_build ri kvs) <= kvsize kvs + 8.
Proof.
  unfold block_build, bw_finish.
  pose proof (bw_append_all_size ri kvs bw_empty) as H. cbn [bw_empty bw_buf bw_restarts] in H.
  change (lenN (@nil N)) with 0 in H.
  set (w := bw_append_all ri bw_empty kvs) in *.
  rewrite lenN_app, lenN_flat_le32, lenN_app. change (lenN [_]) with 1.
  destruct (bw_n w =? 0); [rewrite lenN_app; change (lenN [0]) with 1|]; lia.
Qed.

Lemma kvsize_app a b : kvsize (a ++ b) = kvsize a + kvsize b.
Proof. induction a as [|x a IH]; cbn [app kvsize fold_right]; [reflexivity|]. fold (kvsize (a ++ b)) (kvsize a). lia. Qed.

Lemma kvsize_nth (bl : list (list kv)) j : (j < length bl)%nat -> kvsize (nth j bl []) <= kvsize (concat bl).
Proof. intros Hj. rewrite (concat_split bl j Hj), !kvsize_app. lia. Qed.

Section BlockOrder.
  Variable c : comparer.
  Hypothesis c_ok : comparer_ok c.

  Lemma sorted_infix (a b d : list kv) : sorted c (a ++ b ++ d) -> sorted c b.
  Proof.
    intros Hs. apply (sorted_app_inv c c_ok) in Hs as (_ & Hs & _). apply (sorted_app_inv c c_ok b d Hs).
  Qed.

  Lemma sorted_le_lk (b : list kv) x : sorted c b -> In x b -> cmp c (fst x) (lk b) <> Gt.
  Proof.
    intros Hs Hin. assert (Hne : b <> []) by (destruct b; [destruct Hin | discriminate]).
    destruct (exists_last Hne) as (l & [kl vl] & ->). unfold lk. rewrite last_last. cbn [fst].
    apply in_app_or in Hin as [Hin|[<-|[]]]; [|apply (OrderProofs.le_refl c c_ok)].
    apply (OrderProofs.lt_le c). apply (proj2 (proj2 (sorted_app_inv c c_ok l [(kl, vl)] Hs)) x (kl, vl) Hin). left. reflexivity.
  Qed.

  Lemma sorted_fk_le (b : list kv) x : sorted c b -> In x b -> cmp c (fk b) (fst x) <> Gt.
  Proof.
    intros Hs Hin. destruct b as [|[k0 v0] r]; [destruct Hin|]. unfold fk. cbn [hd fst].
    destruct Hin as [<-|Hin]; [apply (OrderProofs.le_refl c c_ok)|].
    apply (OrderProofs.lt_le c). apply (proj2 (proj2 (sorted_app_inv c c_ok [(k0, v0)] r Hs)) (k0, v0) x); [left; reflexivity | exact Hin].
  Qed.
End BlockOrder.

(* The file Close produces for either compression setting.  With compression the encoder must
   never return the empty string (the writer uses pendingBH.length = 0 to mean "no pending block";
   snappy.Encode always emits the length prefix), and the blocks the reader decodes are not
   bounded by the file: their sizes come from TableSizes.table_sizes_ok. *)
Section Written.
  Variable tp : tparams.
  Hypothesis tp_ok : tparams_ok tp.
  Variable crc : bytes -> N.
  Hypothesis crc_bound : forall b, crc b < 2 ^ 32.
  Variable compress : bytes -> bytes.
  Variable decompress : bytes -> option bytes.
  Hypothesis codec_ok : forall x, decompress (compress x) = Some x.
  Variable fcontains : bytes -> N -> bytes -> bool.
  Variable c : comparer.
  Hypothesis c_ok : comparer_ok c.
  Hypothesis empty_least : forall k, cmp c [] k <> Gt.
  Variable blockSize : N.
  Variable ri : N.
  Hypothesis ri_pos : 1 <= ri.
  Variable fgen : option (bytes * (list (N * list bytes) -> bytes)).
  Variable snappy : bool.

  Local Notation wbytes := (wbytes tp crc compress ri snappy).
  Local Notation plen := (plen tp crc compress ri snappy).
  Local Notation handles_from := (handles_from tp crc compress ri snappy).
  Local Notation out_of := (out_of tp crc compress ri snappy).

  (* bytes and handle length of any block written with compression setting sn *)
  Definition zbytes (sn : bool) (content : bytes) : bytes := fst (write_block tp crc compress 0 content sn).
  Definition zlen (sn : bool) (content : bytes) : N := bh_len (snd (write_block tp crc compress 0 content sn)).

  Lemma wb_z off content sn :
    write_block tp crc compress off content sn = (zbytes sn content, mkBH off (zlen sn content)).
  Proof. apply write_block_off. Qed.

  Lemma zbytes_len sn content : lenN (zbytes sn content) = zlen sn content + 5.
  Proof.
    unfold zbytes, zlen, write_block. cbn [fst snd bh_len]. rewrite lenN_app, lenN_le32.
    destruct sn; rewrite lenN_app; change (lenN [_]) with 1; lia.
  Qed.

  (* NoCompression: every block is in the file as it is *)
  Lemma zlen_plain content : zlen false content = lenN content.
  Proof. unfold zlen, write_block. cbn [snd bh_len]. rewrite lenN_app. change (lenN [_]) with 1. lia. Qed.

  Hypothesis compress_ne : snappy = true -> forall x, compress x <> [].

  Lemma plen_pos b : plen b <> 0.
  Proof.
    change (plen b) with (zlen snappy (block_build ri b)).
    destruct (Bool.bool_dec snappy true) as [E|E].
    - pose proof (compress_ne E (block_build ri b)) as Hne. rewrite E.
      unfold zlen, write_block. cbn [snd bh_len]. rewrite lenN_app. change (lenN [_]) with 1.
      destruct (compress (block_build ri b)) as [|x l]; [congruence|]. rewrite lenN_cons. lia.
    - rewrite (Bool.not_true_is_false _ E), zlen_plain. pose proof (block_build_len_pos ri b). lia.
  Qed.

  Lemma wbytes_len b : lenN (wbytes b) = plen b + 5.
  Proof. apply (zbytes_len snappy). Qed.

  Lemma handles_nth bl : forall off j, (j < length bl)%nat ->
    nth j (handles_from off bl) bh0 = mkBH (off + lenN (out_of (firstn j bl))) (plen (nth j bl [])).
  Proof.
    induction bl as [|b r IH]; intros off j Hj; cbn [length] in Hj; [lia|].
    destruct j as [|j]; cbn [TableWriteProofs.handles_from nth firstn].
    - unfold TableWriteProofs.out_of. cbn. rewrite N.add_0_r. reflexivity.
    - rewrite IH by lia. unfold TableWriteProofs.out_of. cbn [map concat]. rewrite lenN_app. f_equal. lia.
  Qed.

  Lemma out_of_split bl j : (j < length bl)%nat ->
    out_of bl = out_of (firstn j bl) ++ wbytes (nth j bl []) ++ out_of (skipn (S j) bl).
  Proof.
    intros Hj. unfold TableWriteProofs.out_of. rewrite (ListLemmas.split_nth bl j [] Hj) at 1.
    rewrite map_app, concat_app. cbn [map concat]. reflexivity.
  Qed.

  Lemma out_of_firstn_le bl i j : (i <= j)%nat -> lenN (out_of (firstn i bl)) <= lenN (out_of (firstn j bl)).
  Proof.
    intros Hij. replace j with (i + (j - i))%nat by lia. generalize (j - i)%nat as d. intros d. clear Hij.
    revert i. induction bl as [|b r IH]; intros i.
    - rewrite !firstn_nil. lia.
    - destruct i as [|i]; cbn [plus firstn].
      + unfold TableWriteProofs.out_of at 1. cbn [map concat]. change (lenN (@nil N)) with 0. lia.
      + unfold TableWriteProofs.out_of in *. cbn [map concat]. rewrite !lenN_app. specialize (IH i). lia.
  Qed.

  Lemma out_of_firstn_le_all bl j : lenN (out_of (firstn j bl)) <= lenN (out_of bl).
  Proof.
    destruct (Nat.le_gt_cases j (length bl)) as [L|L].
    - rewrite <- (firstn_all bl) at 2. apply out_of_firstn_le. exact L.
    - rewrite firstn_all2 by lia. lia.
  Qed.

  (* a built block written after [pre] reads back *)
  Lemma read_built pre r l post sn verify : 1 <= r ->
    lenN (block_build r l) < 2 ^ 32 -> lenN (pre ++ zbytes sn (block_build r l) ++ post) < 2 ^ 32 ->
    read_block_at tp crc decompress (pre ++ zbytes sn (block_build r l) ++ post)
      (mkBH (lenN pre) (zlen sn (block_build r l))) verify = Ok (built r l).
  Proof.
    intros Hr Hb Hsz.
    pose proof (read_wblock tp tp_ok crc crc_bound compress decompress codec_ok pre (block_build r l) post sn verify) as R.
    cbv zeta in R. rewrite (wb_z (lenN pre)) in R. cbn [fst snd] in R.
    assert (B : 2 ^ 32 < 2 ^ 62) by (apply N.pow_lt_mono_r; lia).
    rewrite !lenN_app in Hsz.
    unfold read_block_at. rewrite R by lia. cbn [bind_res]. apply read_block_build; assumption.
  Qed.

  (* reading data block j of a file that starts with the data blocks *)
  Lemma fetch_written bl rest j verify : (j < length bl)%nat ->
    lenN (out_of bl ++ rest) < 2 ^ 32 -> lenN (block_build ri (nth j bl [])) < 2 ^ 32 ->
    read_block_at tp crc decompress (out_of bl ++ rest) (nth j (handles_from 0 bl) bh0) verify
    = Ok (built ri (nth j bl [])).
  Proof.
    intros Hj Hsz Hb. rewrite (handles_nth bl 0 j Hj), N.add_0_l.
    rewrite (out_of_split bl j Hj), <- !app_assoc in *.
    exact (read_built _ ri _ _ snappy verify ri_pos Hb Hsz).
  Qed.

  Definition foot_of (metaBH indexBH : bhandle) : bytes :=
    let handles := encode_bh metaBH ++ encode_bh indexBH in
    handles ++ repeat 0 (N.to_nat (tp_footerLen tp - lenN (tp_magic tp) - lenN handles)) ++ tp_magic tp.

  Lemma tw_close_shape w w2 :
    w2 = tw_final tp crc compress c snappy w ->
    tw_data w2 = mkBW [] 0 [] [] ->
    exists F ml,
      (tw_close tp crc compress c ri snappy fgen w =
      let out3 := tw_out w2 ++ F in
      let M := block_build ri ml in
      let I := bw_finish (tw_index w2) in
      let metaBH := mkBH (lenN out3) (zlen snappy M) in
      let indexBH := mkBH (lenN (out3 ++ zbytes snappy M)) (zlen snappy I) in
      ((out3 ++ zbytes snappy M) ++ zbytes snappy I) ++ foot_of metaBH indexBH) /\
      (ml = [] \/ exists wname gen fl, fgen = Some (wname, gen) /\
                    ml = [(filter_prefix ++ wname, encode_bh (mkBH (lenN (tw_out w2)) fl))] /\ lenN F = fl + 5).
  Proof.
    intros E2 Hdata. unfold tw_final in E2. unfold tw_close. rewrite <- E2.
    assert (Emw0 : bw_finish (tw_data w2) = block_build ri []) by (rewrite Hdata; reflexivity).
    assert (Emw1 : forall k v, bw_finish (bw_append ri (tw_data w2) k v) = block_build ri [(k, v)])
      by (intros k v; rewrite Hdata; reflexivity).
    destruct fgen as [[name gen]|].
    - set (content := gen (rev (tw_fblocks w2))).
      destruct (0 <? lenN content) eqn:Epos.
      + rewrite (wb_z (lenN (tw_out w2)) content false). cbn [bh_len]. rewrite zlen_plain, Epos.
        exists (zbytes false content), [(filter_prefix ++ name, encode_bh (mkBH (lenN (tw_out w2)) (lenN content)))].
        split; [rewrite Emw1, !wb_z; cbv zeta; unfold foot_of; rewrite <- !app_assoc; reflexivity|].
        right. exists name, gen, (lenN content). split; [reflexivity|]. split; [reflexivity|].
        rewrite zbytes_len, zlen_plain. reflexivity.
      + cbn [bh_len N.ltb N.compare]. exists [], [].
        split; [rewrite Emw0, !wb_z; cbv zeta; unfold foot_of; rewrite !app_nil_r, <- !app_assoc; reflexivity | left; reflexivity].
    - exists [], []. split; [rewrite Emw0, !wb_z; cbv zeta; unfold foot_of; rewrite !app_nil_r, <- !app_assoc; reflexivity | left; reflexivity].
  Qed.

  Lemma foot_len metaBH indexBH : lenN (foot_of metaBH indexBH) = tp_footerLen tp.
  Proof.
    destruct tp_ok as (_ & Hm & Hf & _). unfold foot_of. cbv zeta.
    rewrite !lenN_app, lenN_repeat. pose proof (encode_bh_len metaBH). pose proof (encode_bh_len indexBH).
    rewrite N2Nat.id. lia.
  Qed.

  (* NewReader on such a file; [fname] = the reader's filter name, if it has a filter *)
  Lemma open_written body M metaBH indexBH fname verify :
    let file := body ++ foot_of metaBH indexBH in
    bh_off metaBH < 2 ^ 64 -> bh_len metaBH < 2 ^ 64 -> bh_off indexBH < 2 ^ 64 -> bh_len indexBH < 2 ^ 64 ->
    read_block_at tp crc decompress file metaBH true = Ok M ->
    open_table tp crc decompress fcontains c file fname verify =
    let mit := new_block_iter c M None true in
    let filterBH := match fname with Some name => meta_scan (bi_fuel mit) mit name | None => None end in
    mkTR (read_block_at tp crc decompress file indexBH true)
         (fun h => read_block_at tp crc decompress file h verify)
         (match filterBH with Some h => read_filter_block tp crc decompress fcontains file h | None => None end)
         (match filterBH with Some h => bh_off h | None => bh_off metaBH end).
  Proof.
    intros file H1 H2 H3 H4 HM. destruct tp_ok as (_ & Hm & Hf & _).
    pose proof (foot_len metaBH indexBH) as Hfl.
    unfold open_table.
    assert (Hsz : lenN file = lenN body + tp_footerLen tp) by (unfold file; rewrite lenN_app, Hfl; reflexivity).
    replace (lenN file <? tp_footerLen tp) with false by lia.
    replace (lenN file - tp_footerLen tp) with (lenN body) by lia.
    assert (Efoot : dropN (lenN body) file = foot_of metaBH indexBH) by (unfold file; apply dropN_app).
    rewrite !Efoot.
    assert (Emagic : dropN (tp_footerLen tp - lenN (tp_magic tp)) (foot_of metaBH indexBH) = tp_magic tp).
    { unfold foot_of. cbv zeta. rewrite app_assoc.
      set (hp := (encode_bh metaBH ++ encode_bh indexBH) ++ repeat 0 (N.to_nat (tp_footerLen tp - lenN (tp_magic tp) - lenN (encode_bh metaBH ++ encode_bh indexBH)))).
      assert (Ehp : lenN hp = tp_footerLen tp - lenN (tp_magic tp)).
      { unfold hp. rewrite lenN_app, lenN_repeat, N2Nat.id. rewrite lenN_app.
        pose proof (encode_bh_len metaBH). pose proof (encode_bh_len indexBH). lia. }
      rewrite <- Ehp. rewrite <- (app_nil_r (tp_magic tp)) at 1. rewrite dropN_app. apply app_nil_r. }
    rewrite Emagic.
    assert (Ebeq : beq (tp_magic tp) (tp_magic tp) = true) by (apply beq_eq; reflexivity).
    rewrite Ebeq. cbn [negb].
    unfold foot_of at 1. cbv zeta. rewrite <- app_assoc. rewrite (decode_bh_app metaBH _ H1 H2).
    unfold foot_of at 1. cbv zeta. rewrite <- app_assoc. rewrite dropN_app. rewrite (decode_bh_app indexBH _ H3 H4).
    rewrite HM. reflexivity.
  Qed.

  (* the metaindex scan of NewReader over the block Close wrote: nothing, or the filter handle *)
  Lemma meta_scan_built ml name wname fBH :
    lenN (block_build ri ml) < 2 ^ 32 -> bh_off fBH < 2 ^ 64 -> bh_len fBH < 2 ^ 64 ->
    (ml = [] \/ ml = [(filter_prefix ++ wname, encode_bh fBH)]) ->
    let mit := new_block_iter c (built ri ml) None true in
    meta_scan (bi_fuel mit) mit name = None \/ meta_scan (bi_fuel mit) mit name = Some fBH.
  Proof.
    intros Hsz Ho Hl Hml mit.
    pose proof (build_layout ri ml ri_pos Hsz) as lay.
    assert (Hfu : exists f, bi_fuel mit = S (S f)).
    { unfold mit, bi_fuel. cbn [new_block_iter bi_unsliced bi_blk built b_data].
      pose proof (block_build_len_pos ri ml) as H4. unfold lenN in H4.
      destruct (length (block_build ri ml)) as [|[|n]] eqn:E; try lia. eauto. }
    destruct Hfu as (f & Ef). rewrite Ef. cbn [meta_scan].
    destruct (next_step ml _ _ _ lay mit CSOI (rep_unsliced _ _ _ _)) as (ok & it' & E & R & Eok).
    rewrite E. destruct Hml as [-> | ->].
    - cbn [c_next] in Eok. unfold c_first in Eok. subst ok. left. reflexivity.
    - cbn [c_next] in R, Eok. unfold c_first in R, Eok. subst ok. cbn [negb].
      pose proof R as (_ & _ & _ & Hk & Hv & _).
      unfold key_at, val_at in Hk, Hv. cbn [nth fst snd] in Hk, Hv. rewrite Hk, Hv.
      assert (Esw : starts_with filter_prefix (filter_prefix ++ wname) = true).
      { unfold starts_with. rewrite takeN_app. apply andb_true_intro. split; [apply beq_eq; reflexivity|].
        rewrite lenN_app. lia. }
      rewrite Esw, dropN_app. cbn [andb].
      destruct (beq wname name).
      + rewrite (decode_encode_bh _ Ho Hl). right. reflexivity.
      + (* the name differs: the scan goes on and ends *)
        assert (R' : rep [(filter_prefix ++ wname, encode_bh fBH)] (built ri [(filter_prefix ++ wname, encode_bh fBH)])
                       (b_off ri [(filter_prefix ++ wname, encode_bh fBH)]) (b_ris ri [(filter_prefix ++ wname, encode_bh fBH)]) it' (CAt 0)).
        { destruct (next_step _ _ _ _ lay mit CSOI (rep_unsliced _ _ _ _)) as (ok2 & it2 & E2 & R2 & _).
          rewrite E in E2. injection E2 as _ <-. exact R2. }
        destruct (next_step _ _ _ _ lay it' (CAt 0) R') as (ok3 & it3 & E3 & R3 & Eok3). rewrite E3.
        cbn [c_next length Nat.ltb Nat.leb] in Eok3. subst ok3. left. reflexivity.
  Qed.


  (* a reader that fetches the built blocks at the handles of the closed writer state is a well-formed table *)
  Lemma closed_wf w2 bl seps idx fetch filt dataEnd :
    closed tp crc compress c ri snappy w2 bl seps -> sorted c (concat bl) ->
    idx = Ok (built 1 (ientries seps (handles_from 0 bl))) ->
    lenN (block_build 1 (ientries seps (handles_from 0 bl))) < 2 ^ 32 ->
    (forall j, (j < length bl)%nat ->
       fetch (nth j (handles_from 0 bl) bh0) = Ok (built ri (nth j bl [])) /\
       lenN (block_build ri (nth j bl [])) < 2 ^ 32) ->
    lenN (out_of bl) < 2 ^ 64 -> lenN (out_of bl) <= dataEnd ->
    table_wf c (mkTR idx fetch filt dataEnd) bl seps (handles_from 0 bl).
  Proof.
    intros Hcl Hsort HI Hidx Hfetch Hout HdE.
    assert (Hsb : forall j, (j < length bl)%nat -> sorted c (nth j bl [])).
    { intros j Hj. rewrite (concat_split bl j Hj) in Hsort. apply (sorted_infix c c_ok _ _ _ Hsort). }
    constructor; cbn [tr_index tr_fetch tr_filter tr_dataEnd].
    - exact (cl_len _ _ _ _ _ _ _ _ _ Hcl).
    - apply handles_from_length.
    - pose proof (cl_ne _ _ _ _ _ _ _ _ _ Hcl). destruct bl; [congruence | apply Nat.lt_0_succ].
    - eexists. split; [exact HI|]. eexists. eexists. apply build_layout; [apply N.le_refl | exact Hidx].
    - intros j Hj. destruct (Hfetch j Hj) as [E Sz]. eexists. split; [exact E|].
      eexists. eexists. apply build_layout; [exact ri_pos | exact Sz].
    - intros j Hj. rewrite (handles_nth bl 0 j Hj). cbn [bh_off bh_len].
      pose proof (out_of_firstn_le_all bl j). pose proof (out_of_split bl j Hj) as Es. apply (f_equal (@lenN N)) in Es.
      rewrite !lenN_app, wbytes_len in Es. split; lia.
    - exact Hsort.
    - destruct (cl_blocks _ _ _ _ _ _ _ _ _ Hcl) as [H|H]; [left | right; exact H].
      intros j Hj. rewrite Forall_forall in H. apply H. apply nth_In. exact Hj.
    - intros j x Hj Hin. destruct (cl_law _ _ _ _ _ _ _ _ _ Hcl j Hj) as [H1 _].
      apply (OrderProofs.le_trans c c_ok _ (lk (nth j bl []))); [|exact H1].
      apply (sorted_le_lk c c_ok); [apply Hsb; exact Hj | exact Hin].
    - intros j x Hj Hin. destruct (cl_law _ _ _ _ _ _ _ _ _ Hcl j (Nat.lt_succ_l _ _ Hj)) as [_ H2]. specialize (H2 Hj).
      apply (OrderProofs.lt_le_trans c c_ok _ (fk (nth (S j) bl []))); [exact H2|].
      apply (sorted_fk_le c c_ok); [apply Hsb; exact Hj | exact Hin].
    - intros i j Hij Hj. rewrite (handles_nth bl 0 i (Nat.le_lt_trans _ _ _ Hij Hj)), (handles_nth bl 0 j Hj). cbn [bh_off].
      pose proof (out_of_firstn_le bl i j Hij). lia.
    - intros j Hj. rewrite (handles_nth bl 0 j Hj). cbn [bh_off].
      pose proof (out_of_firstn_le_all bl j). lia.
  Qed.

  (* NewReader on the file Close assembles: metaindex, index and footer after the data blocks [out]
     and the filter block [F] *)
  Lemma open_closed out F ml I fname verify :
    let out3 := out ++ F in
    let M := block_build ri ml in
    let metaBH := mkBH (lenN out3) (zlen snappy M) in
    let indexBH := mkBH (lenN (out3 ++ zbytes snappy M)) (zlen snappy I) in
    let file := ((out3 ++ zbytes snappy M) ++ zbytes snappy I) ++ foot_of metaBH indexBH in
    lenN file < 2 ^ 32 -> lenN M < 2 ^ 32 ->
    (ml = [] \/ exists wname gen fl, fgen = Some (wname, gen) /\
                  ml = [(filter_prefix ++ wname, encode_bh (mkBH (lenN out) fl))] /\ lenN F = fl + 5) ->
    exists filt dataEnd,
      open_table tp crc decompress fcontains c file fname verify =
        mkTR (read_block_at tp crc decompress file indexBH true)
             (fun h => read_block_at tp crc decompress file h verify) filt dataEnd /\
      lenN out <= dataEnd /\ (fgen = None -> filt = None).
  Proof.
    intros out3 M metaBH indexBH file Hsize HMsz Hml.
    assert (B64 : 2 ^ 32 < 2 ^ 64) by (apply N.pow_lt_mono_r; lia).
    assert (Hparts : lenN file = lenN out + lenN F + (zlen snappy M + 5) + (zlen snappy I + 5) + tp_footerLen tp).
    { unfold file, out3. rewrite !lenN_app, foot_len, !zbytes_len. lia. }
    assert (HM : read_block_at tp crc decompress file metaBH true = Ok (built ri ml)).
    { unfold file. rewrite <- !app_assoc. apply (read_built out3 ri ml _ snappy true ri_pos HMsz).
      rewrite !app_assoc. exact Hsize. }
    assert (Hoff : lenN out <= bh_off metaBH) by (cbn [metaBH bh_off]; unfold out3; rewrite lenN_app; lia).
    pose proof (open_written ((out3 ++ zbytes snappy M) ++ zbytes snappy I) (built ri ml) metaBH indexBH fname verify) as Eo.
    cbv zeta in Eo. fold file in Eo. rewrite Eo; [| | | | |exact HM].
    2: cbn [metaBH bh_off]; unfold out3; rewrite lenN_app; lia.
    2: cbn [metaBH bh_len]; lia.
    2: cbn [indexBH bh_off]; rewrite lenN_app, zbytes_len; unfold out3; rewrite lenN_app; lia.
    2: cbn [indexBH bh_len]; lia.
    destruct fname as [name|]; [|eexists; eexists; split; [reflexivity|]; split; [exact Hoff | reflexivity]].
    destruct Hml as [Eml | (wname & gen & fl & Efg & Eml & HF)].
    - destruct (meta_scan_built ml name [] (mkBH 0 0) HMsz ltac:(cbn; lia) ltac:(cbn; lia) (or_introl Eml)) as [E|E].
      + rewrite E. eexists. eexists. split; [reflexivity|]. split; [exact Hoff | reflexivity].
      + exfalso. rewrite Eml in E. cbv in E. discriminate.
    - destruct (meta_scan_built ml name wname (mkBH (lenN out) fl) HMsz ltac:(cbn [bh_off]; lia) ltac:(cbn [bh_len]; lia) (or_intror Eml)) as [E|E];
        rewrite E; eexists; eexists; (split; [reflexivity|]).
      + split; [exact Hoff | reflexivity].
      + split; [cbn [bh_off]; lia | rewrite Efg; discriminate].
  Qed.

  (* The opened file is a well-formed table, and more exactly: the index block and every data
     block the reader fetches are the blocks blockWriter builds for the pairs, all below 2^32
     bytes (what the executable check Codec/TableCheck.v decides), and without a filter generator
     the reader has no filter. *)
  Theorem table_written kvs file fname verify :
    sorted c kvs ->
    twrite tp crc compress c blockSize ri snappy fgen kvs = Some file ->
    lenN file < 2 ^ 32 ->
    (snappy = true -> table_sizes_ok tp crc compress c blockSize ri snappy fgen kvs = true) ->
    exists blocks seps hs,
      let rd := open_table tp crc decompress fcontains c file fname verify in
      table_wf c rd blocks seps hs /\
      tkvs blocks = kvs /\
      tr_index rd = Ok (built 1 (ientries seps hs)) /\
      lenN (block_build 1 (ientries seps hs)) < 2 ^ 32 /\
      (forall j, (j < length blocks)%nat ->
         tr_fetch rd (nth j hs bh0) = Ok (built ri (nth j blocks [])) /\
         lenN (block_build ri (nth j blocks [])) < 2 ^ 32) /\
      (fgen = None -> tr_filter rd = None).
  Proof.
    intros Hsorted Hw Hsize Hok. unfold twrite in Hw.
    destruct (append_all_inv tp crc compress c c_ok empty_least blockSize ri ri_pos snappy plen_pos kvs
                tw_empty (mkG [] [] []) (winv_empty tp crc compress c ri ri_pos snappy) Hsorted)
      as (w & g & Ew & Hinv & Ecat).
    cbn [g_done g_cur concat app] in Ecat.
    rewrite Ew in Hw. cbn [option_map] in Hw. injection Hw as Hfile.
    destruct (close_state tp crc compress c c_ok empty_least ri ri_pos snappy plen_pos w g Hinv) as (bl & seps & Hcl & Ebl).
    cbv zeta in Hcl.
    set (w2 := tw_final tp crc compress c snappy w) in *.
    change (tw_flush_pending c (if (0 <? bw_n (tw_data w)) || (tw_n w =? 0) then tw_finish_block tp crc compress snappy w else w) [])
      with w2 in Hcl.
    destruct (tw_close_shape w w2 eq_refl (cl_data _ _ _ _ _ _ _ _ _ Hcl)) as (F & ml & Eshape & Hml).
    rewrite Eshape in Hfile. cbv zeta in Hfile.
    rewrite (cl_out _ _ _ _ _ _ _ _ _ Hcl), (cl_index _ _ _ _ _ _ _ _ _ Hcl) in Hfile.
    set (hs := handles_from 0 bl) in *.
    set (out3 := out_of bl ++ F) in *.
    set (M := block_build ri ml) in *.
    set (I := bw_finish (index_of seps hs)) in *.
    set (metaBH := mkBH (lenN out3) (zlen snappy M)) in *.
    set (indexBH := mkBH (lenN (out3 ++ zbytes snappy M)) (zlen snappy I)) in *.
    assert (B64 : 2 ^ 32 < 2 ^ 64) by (apply N.pow_lt_mono_r; lia).
    assert (Hparts : lenN file = lenN (out_of bl) + lenN F + (zlen snappy M + 5) + (zlen snappy I + 5) + tp_footerLen tp).
    { rewrite <- Hfile. rewrite !lenN_app, foot_len, !zbytes_len. unfold out3. rewrite lenN_app. lia. }
    (* the uncompressed blocks are below 2^32 *)
    assert (Hsizes : lenN M < 2 ^ 32 /\ lenN I < 2 ^ 32 /\
                     forall j, (j < length bl)%nat -> lenN (block_build ri (nth j bl [])) < 2 ^ 32).
    { destruct (Bool.bool_dec snappy true) as [Esn|Esn].
      - specialize (Hok Esn). unfold table_sizes_ok, index_len in Hok. rewrite Ew in Hok. cbn [option_map] in Hok.
        apply andb_prop in Hok as [Hok Hname]. apply andb_prop in Hok as [Hkv Hidx].
        apply N.ltb_lt in Hkv, Hidx. fold w2 in Hidx. rewrite (cl_index _ _ _ _ _ _ _ _ _ Hcl) in Hidx.
        split; [|split; [exact Hidx|]].
        + pose proof (block_build_len_le ri ml) as Hle. fold M in Hle.
          destruct Hml as [-> | (wname & gen & fl & Efg & -> & _)]; [cbn [kvsize fold_right] in Hle; lia|].
          rewrite Efg in Hname. apply N.ltb_lt in Hname.
          cbn [kvsize fold_right fst snd] in Hle. rewrite lenN_app in Hle.
          pose proof (encode_bh_len (mkBH (lenN (tw_out w2)) fl)). change (lenN filter_prefix) with 7 in Hle. lia.
        + intros j Hj. pose proof (block_build_len_le ri (nth j bl [])). pose proof (kvsize_nth bl j Hj) as Hk.
          rewrite Ebl, Ecat in Hk. lia.
      - apply Bool.not_true_is_false in Esn. rewrite Esn, !zlen_plain in Hparts.
        split; [lia | split; [lia|]]. intros j Hj.
        pose proof (out_of_split bl j Hj) as Es. apply (f_equal (@lenN N)) in Es.
        rewrite !lenN_app, wbytes_len in Es. change (plen (nth j bl [])) with (zlen snappy (block_build ri (nth j bl []))) in Es.
        rewrite Esn, zlen_plain in Es. lia. }
    destruct Hsizes as (HMsz & Hidx & Hdsz).
    assert (Hsz : lenN (((out3 ++ zbytes snappy M) ++ zbytes snappy I) ++ foot_of metaBH indexBH) < 2 ^ 32)
      by (rewrite Hfile; exact Hsize).
    assert (HI : read_block_at tp crc decompress file indexBH true = Ok (built 1 (ientries seps hs))).
    { rewrite <- Hfile. rewrite <- (app_assoc (out3 ++ zbytes snappy M)) in Hsz |- *.
      exact (read_built (out3 ++ zbytes snappy M) 1 (ientries seps hs) _ snappy true (N.le_refl 1) Hidx Hsz). }
    rewrite (cl_out _ _ _ _ _ _ _ _ _ Hcl) in Hml.
    destruct (open_closed (out_of bl) F ml I fname verify Hsz HMsz Hml) as (filt & dataEnd & Hopen0 & HdE & Hfilt).
    assert (Hopen : open_table tp crc decompress fcontains c file fname verify =
                    mkTR (read_block_at tp crc decompress file indexBH true)
                         (fun h => read_block_at tp crc decompress file h verify) filt dataEnd)
      by (rewrite <- Hfile; exact Hopen0).
    assert (Hsort : sorted c (concat bl)) by (rewrite Ebl, Ecat; exact Hsorted).
    assert (Hfetch : forall j, (j < length bl)%nat ->
              read_block_at tp crc decompress file (nth j hs bh0) verify = Ok (built ri (nth j bl [])) /\
              lenN (block_build ri (nth j bl [])) < 2 ^ 32).
    { intros j Hj. split; [|apply Hdsz; exact Hj]. rewrite <- Hfile. unfold out3. rewrite <- !app_assoc.
      apply fetch_written; [exact Hj| |apply Hdsz; exact Hj].
      rewrite !app_assoc. fold out3. rewrite Hfile. exact Hsize. }
    exists bl, seps, hs. cbv zeta. rewrite Hopen. cbn [tr_index tr_fetch tr_filter tr_dataEnd].
    split; [|split; [unfold tkvs; rewrite Ebl, Ecat; reflexivity|split; [exact HI|split; [exact Hidx|split; [exact Hfetch|exact Hfilt]]]]].
    apply (closed_wf w2 bl seps _ _ filt dataEnd Hcl Hsort HI Hidx Hfetch); [|exact HdE].
    clear - Hparts Hsize B64. lia.
  Qed.
End Written.

(* NoCompression: the file length bounds every block *)
Section Final.
  Variable tp : tparams.
  Hypothesis tp_ok : tparams_ok tp.
  Variable crc : bytes -> N.
  Hypothesis crc_bound : forall b, crc b < 2 ^ 32.
  Variable compress : bytes -> bytes.
  Variable decompress : bytes -> option bytes.
  Hypothesis codec_ok : forall x, decompress (compress x) = Some x.
  Variable fcontains : bytes -> N -> bytes -> bool.
  Variable c : comparer.
  Hypothesis c_ok : comparer_ok c.
  Hypothesis empty_least : forall k, cmp c [] k <> Gt.
  Variable blockSize : N.
  Variable ri : N.
  Hypothesis ri_pos : 1 <= ri.
  Variable fgen : option (bytes * (list (N * list bytes) -> bytes)).

  Theorem table_wf_of_write kvs file fname verify :
    sorted c kvs ->
    twrite tp crc compress c blockSize ri false fgen kvs = Some file ->
    lenN file < 2 ^ 32 ->
    exists blocks seps hs,
      table_wf c (open_table tp crc decompress fcontains c file fname verify) blocks seps hs /\
      tkvs blocks = kvs.
  Proof.
    intros Hsorted Hw Hsize.
    destruct (table_written tp tp_ok crc crc_bound compress decompress codec_ok fcontains c c_ok empty_least
                blockSize ri ri_pos fgen false ltac:(discriminate) kvs file fname verify Hsorted Hw Hsize ltac:(discriminate))
      as (bl & seps & hs & W & E & _).
    exists bl, seps, hs. split; assumption.
  Qed.
End Final.

From GL Require Import Codec.TableIterProofs Codec.TableEmptyProofs.

(* what a reader of a well-formed table answers, in terms of the table's pairs *)
Lemma wf_roundtrip c rd blocks seps hs strict : comparer_ok c -> table_wf c rd blocks seps hs ->
  let kvs := tkvs blocks in
  (forall k v, In (k, v) kvs -> tget c rd k = FFound k v) /\
  (forall k, (forall v, ~ In (k, v) kvs) -> tget c rd k = FNotFound) /\
  (forall key, tfind c rd key false =
     match first_ge c key kvs 0 with
     | Some i => match nth_error kvs i with Some (k, v) => FFound k v | None => FOther end
     | None => FNotFound
     end) /\
  (exists t, new_titer c rd None strict = inr t /\
     forall ops, fst (ti_run c rd t ops) = c_run c kvs CSOI ops) /\
  (forall k1 k2, cmp c k1 k2 <> Gt ->
     exists o1 o2, toffset_of c rd k1 = Ok o1 /\ toffset_of c rd k2 = Ok o2 /\ o1 <= o2) /\
  (forall start limit,
     exists t, new_titer c rd (Some (start, limit)) strict = inr t /\
       forall ops, fst (ti_run c rd t ops) = c_run c (restrict c start limit kvs) CSOI ops).
Proof.
  intros Hc Hwf kvs.
  split; [intros k v; apply (tget_present c Hc rd blocks seps hs Hwf)|].
  split; [intros k; apply (tget_absent c Hc rd blocks seps hs Hwf)|].
  split; [intros key; apply (tfind_first_ge c Hc rd blocks seps hs Hwf)|].
  split; [apply (table_iter_refines c rd blocks seps hs strict Hc Hwf)|].
  split; [intros k1 k2; apply (toffset_mono c Hc rd blocks seps hs Hwf)|].
  intros start limit. apply (table_iter_range_refines c rd blocks seps hs start limit strict Hc Hwf).
Qed.

Theorem table_roundtrip tp crc compress decompress fcontains c blockSize ri fgen kvs file fname verify strict :
  tparams_ok tp -> (forall b, crc b < 2 ^ 32) -> (forall x, decompress (compress x) = Some x) ->
  comparer_ok c -> (forall k, cmp c [] k <> Gt) -> 1 <= ri ->
  sorted c kvs ->
  twrite tp crc compress c blockSize ri false fgen kvs = Some file -> lenN file < 2 ^ 32 ->
  let rd := open_table tp crc decompress fcontains c file fname verify in
  (forall k v, In (k, v) kvs -> tget c rd k = FFound k v) /\
  (forall k, (forall v, ~ In (k, v) kvs) -> tget c rd k = FNotFound) /\
  (forall key, tfind c rd key false =
     match first_ge c key kvs 0 with
     | Some i => match nth_error kvs i with Some (k, v) => FFound k v | None => FOther end
     | None => FNotFound
     end) /\
  (exists t, new_titer c rd None strict = inr t /\
     forall ops, fst (ti_run c rd t ops) = c_run c kvs CSOI ops) /\
  (forall k1 k2, cmp c k1 k2 <> Gt ->
     exists o1 o2, toffset_of c rd k1 = Ok o1 /\ toffset_of c rd k2 = Ok o2 /\ o1 <= o2) /\
  (kvs <> [] -> forall start limit,
     exists t, new_titer c rd (Some (start, limit)) strict = inr t /\
       forall ops, fst (ti_run c rd t ops) = c_run c (restrict c start limit kvs) CSOI ops).
Proof.
  intros Htp Hcrc Hcodec Hc Hel Hri Hs Hw Hsz rd.
  destruct (table_wf_of_write tp Htp crc Hcrc compress decompress Hcodec fcontains c Hc Hel blockSize ri Hri fgen kvs file fname verify Hs Hw Hsz)
    as (blocks & seps & hs & Hwf & Ek).
  fold rd in Hwf. rewrite <- Ek.
  destruct (wf_roundtrip c rd blocks seps hs strict Hc Hwf) as (H1 & H2 & H3 & H4 & H5 & H6).
  repeat (split; [assumption|]). intros _. exact H6.
Qed.
