(* Codec/TableIterProofs.v — Stage B: the table iterator (indexedIterator over indexIter and the
   data-block iterators) refines the reference cursor over the concatenation of the blocks, for
   arbitrary First/Last/Seek/Next/Prev sequences — unsliced iterator (NewIterator(nil, ro)), for
   both settings of the strict flag.  It is the iterator of TableDamageIterProofs.v over a table
   none of whose blocks is unreadable. *)
From GL Require Import Codec.Table Codec.TableProofs Codec.TableSliceProofs Codec.TableDamageIterProofs.

Local Open Scope N_scope.

(* for a well-formed table, NewIterator(nil) succeeds and every movement sequence observes what
   the reference cursor over the table's pairs observes *)
Theorem table_iter_refines c rd blocks seps hs strict :
  comparer_ok c -> table_wf c rd blocks seps hs ->
  exists t, new_titer c rd None strict = inr t /\
    forall ops, fst (ti_run c rd t ops) = c_run c (tkvs blocks) CSOI ops.
Proof.
  intros Hc wf. destruct (twf_index _ _ _ _ _ wf) as (ib & Eib & (ioff & iris & ilay)).
  unfold new_titer. rewrite Eib. eexists. split; [reflexivity|].
  intros ops.
  rewrite (damaged_run c Hc rd rd blocks seps hs wf (fun _ => false) strict (fun _ _ => eq_refl)
             (fun _ _ H => False_ind _ (Bool.diff_false_true H)) ib ioff iris ilay ops).
  unfold Vd, vd, tkvs. rewrite (map_nth_seq blocks []). reflexivity.
Qed.
