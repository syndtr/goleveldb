(* Codec/JournalDamageProofs.v — containment of damage: under the computable hypothesis
   no_forgery (whatever the parser accepts in a block is a run of the original chunks of that
   block from its start, the rest being reported as dropped) the tolerant reader yields a
   sub-sequence of the records written, containing every record none of whose chunks lies in a
   block that differs from the written one; the strict reader yields a prefix of the records, then one error or
   nothing; and no_forgery holds of every undamaged stream (no_forgery_intact). *)
From GL Require Import Base.BytesProofs Codec.JournalSpec Codec.JournalLemmas Codec.JournalReaderProofs
  Codec.JournalWriterProofs Codec.JournalProofs.
From GL Require Mem.ListLemmas.
From Coq Require Import Lia.

Section DamageProofs.
  Variable crc : bytes -> N.
  Variable p : jparams.
  Hypothesis pok : jparams_ok p.

  Definition starts (cs : list chunk) : Prop :=
    Forall (fun c => is_start_type p (c_type c) = true) cs.
  (* the shape of a written block: only its first chunk can be a middle or last chunk (continue a record begun in
     an earlier block); every later chunk starts a record *)
  Definition blk_shape (cs : list chunk) : Prop := starts (tl cs).
  Definition shape_lay (l : lay) : Prop := Forall blk_shape (l_closed l) /\ blk_shape (l_open l).

  Lemma shape_push open c :
    blk_shape open -> (open = [] \/ is_start_type p (c_type c) = true) -> blk_shape (open ++ [c]).
  Proof.
    intros H [->|Hc]; [constructor|]. destruct open as [|x t]; [constructor|].
    cbn [app tl]. apply Forall_app. split; [exact H|]. constructor; [exact Hc|constructor].
  Qed.

  Lemma shape_lay_push l c :
    shape_lay l -> (l_open l = [] \/ is_start_type p (c_type c) = true) -> shape_lay (lay_push l c).
  Proof. intros (H1 & H2) Hc. split; cbn; [exact H1|]. apply shape_push; assumption. Qed.

  Lemma shape_lay_close l : shape_lay l -> shape_lay (lay_close l).
  Proof.
    intros (H1 & H2). split; cbn; [|constructor].
    apply Forall_app. split; [exact H1|]. constructor; [exact H2|constructor].
  Qed.

  Lemma lay_write_shape : forall fuel l f d q,
    shape_lay l -> (f = false -> l_open l = []) -> shape_lay (lay_write p fuel l f d q).
  Proof.
    pose proof (type_facts p pok) as (Hs1 & _ & Hs2 & _).
    assert (Hlast : forall l f d, shape_lay l -> (f = false -> l_open l = []) ->
                     shape_lay (lay_push l (mk (last_type p f) d))).
    { intros l f d H Hf. apply shape_lay_push; [exact H|]. destruct f; [right; exact Hs1|left; auto]. }
    induction fuel as [|fuel IH]; intros l f d q H Hf; destruct q as [|x q]; cbn [lay_write];
      try (apply Hlast; assumption); [exact H|].
    destruct (bsize p (l_open l) + hs p + lenN d =? bs p).
    - apply IH; [|reflexivity]. apply shape_lay_close, shape_lay_push; [exact H|].
      destruct f; [right; exact Hs2|left; auto].
    - apply IH; assumption.
  Qed.

  Lemma layout_shape rs : shape_lay (layout p rs).
  Proof.
    unfold layout. assert (H0 : shape_lay lay_empty) by (split; constructor).
    revert H0. generalize lay_empty. induction rs as [|r rs IH]; intros l H; cbn [fold_left]; [exact H|].
    apply IH. unfold lay_record. apply lay_write_shape; [|discriminate].
    unfold lay_next. destruct (bs p <? bsize p (l_open l) + hs p); [apply shape_lay_close|]; exact H.
  Qed.

  Lemma lay_blocks_shape l : shape_lay l -> Forall blk_shape (lay_blocks l).
  Proof.
    intros (H1 & H2). unfold lay_blocks. apply Forall_app. split; [exact H1|].
    destruct (l_open l); constructor; [exact H2|constructor].
  Qed.

  Lemma lay_blocks_concat l : concat (lay_blocks l) = lay_chunks l.
  Proof.
    unfold lay_blocks, lay_chunks. rewrite concat_app. f_equal.
    destruct (l_open l); cbn; [reflexivity|]. now rewrite app_nil_r.
  Qed.

  (* What became of one written chunk in the stream read, one observation per chunk: delivered, reported as a
     drop, or vanished without a report (covered by the drop reported for an earlier chunk of its block).  The
     events read are then flat_map obs_events over combine chunks observations. *)
  Inductive cobs := ODeliver | OBad (r n : N) | OSilent.

  Definition obs_events (z : chunk * cobs) : list bev :=
    match snd z with
    | ODeliver => [BChunk (fst z)]
    | OBad r n => [BBad r n]
    | OSilent => []
    end.

  (* a middle/last chunk is never lost silently *)
  Definition valid_obs (c : chunk) (o : cobs) : Prop :=
    o = OSilent -> is_start_type p (c_type c) = true.

  Definition is_deliver (o : cobs) : bool := match o with ODeliver => true | _ => false end.
  Definition all_deliver (os : list cobs) : bool := forallb is_deliver os.

  Lemma chunk_eqb_eq a b : chunk_eqb a b = true -> a = b.
  Proof.
    destruct a as [t d], b as [t' d']. unfold chunk_eqb; cbn. intros H.
    apply andb_prop in H as [H1 H2]. apply N.eqb_eq in H1. apply beq_eq in H2. congruence.
  Qed.

  Lemma silent_events cs : flat_map obs_events (combine cs (repeat OSilent (length cs))) = [].
  Proof. induction cs as [|c cs IH]; [reflexivity|]. cbn. exact IH. Qed.

  Lemma silent_valid cs : starts cs -> Forall2 valid_obs cs (repeat OSilent (length cs)).
  Proof. induction 1; cbn; constructor; [intros _; assumption|assumption]. Qed.

  (* the observations of a block: delivered chunks, then possibly one reported drop *)
  Definition lead (os : list cobs) : Prop :=
    all_deliver os = true \/ exists k r n os', os = repeat ODeliver k ++ OBad r n :: os'.

  Lemma evs_match_obs : forall cs evs,
    evs_match evs cs = true -> starts (tl cs) ->
    exists os, Forall2 valid_obs cs os /\ flat_map obs_events (combine cs os) = evs /\
               (evs = map BChunk cs -> all_deliver os = true) /\ lead os.
  Proof.
    induction cs as [|c0 cs IH]; intros evs Hm Hs.
    - destruct evs as [|[c|r n] [|e evs']]; try discriminate. exists []. repeat split; [constructor|left; reflexivity].
    - destruct evs as [|[c|r n] evs']; [discriminate| |].
      + cbn [evs_match] in Hm. apply andb_prop in Hm as [He Hm]. apply chunk_eqb_eq in He. subst c.
        destruct (IH evs' Hm) as (os & Hv & He & Ha & Hl).
        { cbn [tl] in Hs. destruct cs; [constructor|]. now inversion Hs. }
        exists (ODeliver :: os). split; [constructor; [intros ?; discriminate|exact Hv]|].
        split; [cbn; now rewrite He|]. split.
        * intros E. cbn [map] in E. injection E as E. cbn. now apply Ha.
        * destruct Hl as [Hl|(k & r & n & os' & ->)]; [left; exact Hl|].
          right. exists (S k), r, n, os'. reflexivity.
      + destruct evs' as [|e evs']; [|discriminate].
        exists (OBad r n :: repeat OSilent (length cs)).
        split; [constructor; [intros ?; discriminate|apply silent_valid; exact Hs]|].
        split; [cbn; now rewrite silent_events|]. split; [intros E; discriminate|].
        right. exists 0%nat, r, n, (repeat OSilent (length cs)). reflexivity.
  Qed.

  Lemma recs_of_app a b : recs_of (a ++ b) = recs_of a ++ recs_of b.
  Proof. unfold recs_of. apply flat_map_app. Qed.

  Notation asm := (assemble p false).

  (* the continuation chunks of a record, from either assembler state: only a record begun and delivered whole
     comes out *)
  Lemma asm_cont x cs : cont_chunks p x cs -> forall os st evs,
    Forall2 valid_obs cs os ->
    recs_of (asm st (flat_map obs_events (combine cs os) ++ evs)) =
    (match st with AIn acc => if all_deliver os then [acc ++ x] else [] | AIdle => [] end) ++ recs_of (asm AIdle evs).
  Proof.
    pose proof (type_facts p pok) as (_&_&_&_&Hsm&Hlm&Hsl&Hll).
    induction 1 as [d|d x cs Hc IH]; intros os st evs Hv;
      inversion Hv as [|? o ? os' Ho Hv']; subst; [inversion Hv'; subst|];
      (destruct o; [| |specialize (Ho eq_refl); cbn in Ho; congruence]); destruct st as [|acc];
      cbn [combine flat_map obs_events fst snd app assemble mk c_type c_data all_deliver forallb is_deliver andb];
      rewrite <- ?app_assoc, ?Hsl, ?Hll, ?Hsm, ?Hlm; cbn [app recs_of flat_map]; try reflexivity.
    - apply (IH os' AIdle evs Hv').
    - rewrite (IH os' (AIn (acc ++ d)) evs Hv'), <- app_assoc. reflexivity.
    - apply (IH os' AIdle evs Hv').
    - apply (IH os' AIdle evs Hv').
  Qed.

  Lemma asm_rec r cs : rec_chunks p r cs -> forall os evs,
    Forall2 valid_obs cs os ->
    recs_of (asm AIdle (flat_map obs_events (combine cs os) ++ evs)) =
    (if all_deliver os then [r] else []) ++ recs_of (asm AIdle evs).
  Proof.
    pose proof (type_facts p pok) as (Hs1&Hl1&Hs2&Hl2&_).
    intros [r'|d x cs' Hc] os evs Hv.
    - inversion Hv as [|? o ? os' Ho Hv']; subst. inversion Hv'; subst.
      destruct o; cbn [combine flat_map obs_events fst snd app assemble mk c_type c_data all_deliver forallb is_deliver andb].
      + rewrite Hs1, Hl1. reflexivity.
      + reflexivity.
      + reflexivity.
    - inversion Hv as [|? o ? os' Ho Hv']; subst.
      destruct o; cbn [combine flat_map obs_events fst snd app assemble mk c_type c_data all_deliver forallb is_deliver andb]; rewrite <- ?app_assoc.
      + rewrite Hs2, Hl2. cbn [app]. apply (asm_cont x cs' Hc os' (AIn d)); exact Hv'.
      + cbn [app recs_of flat_map]. apply (asm_cont x cs' Hc os' AIdle); exact Hv'.
      + cbn [app]. apply (asm_cont x cs' Hc os' AIdle); exact Hv'.
  Qed.

  Lemma asm_records rs css : Forall2 (rec_chunks p) rs css -> forall oss evs,
    Forall2 (Forall2 valid_obs) css oss ->
    recs_of (asm AIdle (flat_map obs_events (combine (concat css) (concat oss)) ++ evs)) =
    select (map all_deliver oss) rs ++ recs_of (asm AIdle evs).
  Proof.
    induction 1 as [|r cs rs css Hr Hrs IH]; intros oss evs Hv.
    - inversion Hv; subst. reflexivity.
    - inversion Hv as [|? os ? oss' Ho Hv']; subst. cbn [concat map select].
      rewrite ListLemmas.combine_app by (eapply ListLemmas.Forall2_length; exact Ho).
      rewrite flat_map_app, <- app_assoc. rewrite (asm_rec r cs Hr) by exact Ho.
      rewrite IH by exact Hv'. destruct (all_deliver os); reflexivity.
  Qed.

  Lemma split_obs css : forall os, Forall2 valid_obs (concat css) os ->
    exists oss, os = concat oss /\ Forall2 (Forall2 valid_obs) css oss.
  Proof.
    induction css as [|cs css IH]; intros os H.
    - cbn in H. inversion H; subst. exists []. split; [reflexivity|constructor].
    - cbn [concat] in H. apply Forall2_app_inv_l in H as (o1 & o2 & H1 & H2 & ->).
      destruct (IH o2 H2) as (oss & -> & Hoss). exists (o1 :: oss). split; [reflexivity|].
      constructor; assumption.
  Qed.

  Lemma forall2b_Forall2 {A B} (f : A -> B -> bool) a : forall b,
    forall2b f a b = true -> Forall2 (fun x y => f x y = true) a b.
  Proof.
    induction a as [|x a IH]; intros [|y b] H; cbn in H; try discriminate; constructor.
    - now apply andb_prop in H.
    - apply IH. now apply andb_prop in H.
  Qed.

  Lemma all_deliver_repeat os : all_deliver os = true -> os = repeat ODeliver (length os).
  Proof.
    induction os as [|o os IH]; [reflexivity|]. cbn. intros H. apply andb_prop in H as [H1 H2].
    destruct o; try discriminate. f_equal. now apply IH.
  Qed.

  Lemma all_deliver_app a b : all_deliver (a ++ b) = all_deliver a && all_deliver b.
  Proof. apply forallb_app. Qed.

  Lemma lead_app a b : lead a -> lead b -> lead (a ++ b).
  Proof.
    intros [Ha|(k & r & n & os' & ->)] Hb.
    - destruct Hb as [Hb|(k & r & n & os' & ->)].
      + left. rewrite all_deliver_app, Ha, Hb. reflexivity.
      + right. exists (length a + k)%nat, r, n, os'.
        rewrite (all_deliver_repeat a Ha) at 1. rewrite app_assoc, <- repeat_app. reflexivity.
    - right. exists k, r, n, (os' ++ b). rewrite <- app_assoc. reflexivity.
  Qed.

  Section Blocks.
    Variable ck : bool.
    Variable P : nat -> Prop.   (* "block i is intact" *)

    (* a chunk (tagged with the index of its block) of an intact block is delivered *)
    Definition Q (tc : nat * chunk) (o : cobs) : Prop := P (fst tc) -> o = ODeliver.

    Lemma blocks_obs : forall bl bd i0,
      Forall2 (fun cs blk => evs_match (parse_from crc p ck blk) cs = true) bl bd ->
      Forall blk_shape bl ->
      (forall j, (j < length bl)%nat -> P (i0 + j)%nat ->
                 parse_from crc p ck (nth j bd []) = map BChunk (nth j bl [])) ->
      exists os,
        Forall2 valid_obs (concat bl) os /\
        flat_map obs_events (combine (concat bl) os) = flat_map (parse_from crc p ck) bd /\
        lead os /\ Forall2 Q (tag_blocks i0 bl) os.
    Proof.
      induction bl as [|cs bl IH]; intros bd i0 HF Hsh HP.
      - inversion HF; subst. exists []. cbn. split; [constructor|]. split; [reflexivity|].
        split; [left; reflexivity|constructor].
      - inversion HF as [|? blk ? bd' Hm HF']; subst. inversion Hsh as [|? ? Hs1 Hsh']; subst.
        destruct (evs_match_obs cs _ Hm Hs1) as (os1 & Hv1 & He1 & Ha1 & Hl1).
        destruct (IH bd' (S i0) HF' Hsh') as (os2 & Hv2 & He2 & Hl2 & Hq2).
        { intros j Hj Hp. apply (HP (S j)); [cbn; lia|]. replace (i0 + S j)%nat with (S i0 + j)%nat by lia. exact Hp. }
        exists (os1 ++ os2). cbn [concat flat_map tag_blocks].
        split; [apply Forall2_app; assumption|].
        split. { rewrite ListLemmas.combine_app by (eapply ListLemmas.Forall2_length; exact Hv1). rewrite flat_map_app, He1, He2. reflexivity. }
        split; [apply lead_app; assumption|].
        apply Forall2_app; [|exact Hq2].
        assert (Hd : P i0 -> all_deliver os1 = true).
        { intros Hp. apply Ha1. specialize (HP 0%nat). cbn [nth length] in HP.
          apply HP; [lia|]. replace (i0 + 0)%nat with i0 by lia. exact Hp. }
        clear - Hv1 Hd. revert Hd. induction Hv1 as [|c o cs' os' _ _ IHv]; intros Hd; cbn [map]; constructor.
        + intros Hp. cbn in Hp. specialize (Hd Hp). cbn in Hd. apply andb_prop in Hd as [Hd _].
          destruct o; try discriminate. reflexivity.
        + apply IHv. intros Hp. specialize (Hd Hp). cbn in Hd. now apply andb_prop in Hd.
    Qed.
  End Blocks.

  Lemma stream_blocks_render l : wf_lay p l ->
    Forall2 (fun cs blk => forall ck, parse_from crc p ck blk = map BChunk cs)
            (lay_blocks l) (stream_blocks p (render_lay crc p l)).
  Proof.
    pose proof (hs7 p pok) as H7. pose proof (hs_lt_bs p pok) as Hb.
    intros (Hc & Ho). unfold lay_blocks, render_lay.
    induction Hc as [|c1 closed Hc1 Hc' IH].
    - cbn [flat_map app]. destruct (l_open l) as [|c cs] eqn:Eo.
      + cbn. constructor.
      + assert (Hne : render_chunks crc (c :: cs) <> []).
        { intros E. apply (f_equal lenN) in E. rewrite (lenN_render_chunks crc p pok) in E.
          cbn [bsize] in E. unfold csize in E. change (lenN (@nil N)) with 0 in E. lia. }
        rewrite (stream_blocks_cons crc p pok _ Hne).
        rewrite takeN_all, dropN_all by (rewrite (lenN_render_chunks crc p pok); apply Ho).
        change (stream_blocks p []) with (@nil bytes). cbn [app]. constructor; [|constructor]. intros ck.
        rewrite <- (app_nil_r (render_chunks crc (c :: cs))).
        apply (parse_chunks crc p pok); [exact Ho|]. change (lenN (@nil N)) with 0. lia.
    - cbn [flat_map app]. rewrite <- app_assoc.
      destruct Hc1 as (Hbig & Hok1).
      pose proof (lenN_render_closed crc p pok c1 Hok1) as L1.
      rewrite (stream_blocks_cons crc p pok).
      + rewrite takeN_app_exact, dropN_app_exact by exact L1. constructor; [|exact IH].
        intros ck. unfold render_closed. apply (parse_chunks crc p pok); [exact Hok1|].
        rewrite lenN_zeros. lia.
      + intros E. apply (f_equal lenN) in E. rewrite lenN_app, L1 in E.
        change (lenN (@nil N)) with 0 in E. lia.
  Qed.

  Lemma Forall2_nth {A B} (R : A -> B -> Prop) a b da db j :
    Forall2 R a b -> (j < length a)%nat -> R (nth j a da) (nth j b db).
  Proof.
    intros H. revert j. induction H; intros j Hj; cbn in Hj; [lia|].
    destruct j; cbn; [assumption|]. apply IHForall2. lia.
  Qed.

  Definition rec_shape {A} (ty : A -> N) (g : list A) : Prop :=
    match g with
    | [] => False
    | s :: cont => is_start_type p (ty s) = true /\
                   Forall (fun y => is_start_type p (ty y) = false) cont
    end.

  Lemma group_recs_cons {A} (ty : A -> N) x l :
    group_recs p ty (x :: l) =
    match group_recs p ty l with
    | [] => [[x]]
    | [] :: gs => [x] :: gs
    | (y :: g) :: gs =>
        if is_start_type p (ty y) then [x] :: (y :: g) :: gs else (x :: y :: g) :: gs
    end.
  Proof. reflexivity. Qed.

  Lemma group_recs_concat {A} (ty : A -> N) (gs : list (list A)) :
    Forall (rec_shape ty) gs -> group_recs p ty (concat gs) = gs.
  Proof.
    induction 1 as [|g gs Hg Hgs IH]; [reflexivity|].
    destruct g as [|s cont]; [contradiction|]. destruct Hg as (Hs & Hcont).
    cbn [concat app].
    (* peel the group from the right *)
    assert (Hgen : forall pre x, Forall (fun y => is_start_type p (ty y) = false) pre ->
                     group_recs p ty (x :: pre ++ concat gs) = (x :: pre) :: gs).
    { induction pre as [|y pre IHp]; intros x Hp.
      - cbn [app]. rewrite group_recs_cons, IH. destruct gs as [|g' gs']; [reflexivity|].
        inversion Hgs as [|? ? Hg' _]; subst. destruct g' as [|s' c']; [contradiction|].
        destruct Hg' as (Hs' & _). rewrite Hs'. reflexivity.
      - inversion Hp as [|? ? Hy Hp']; subst. cbn [app].
        rewrite group_recs_cons, (IHp y Hp'). rewrite Hy. reflexivity. }
    apply Hgen. exact Hcont.
  Qed.

  Lemma cont_chunks_nonstart x cs : cont_chunks p x cs ->
    Forall (fun c => is_start_type p (c_type c) = false) cs.
  Proof.
    pose proof (type_facts p pok) as (_&_&_&_&Hsm&_&Hsl&_).
    induction 1; constructor; try assumption; constructor.
  Qed.

  Lemma rec_chunks_shape r cs : rec_chunks p r cs -> rec_shape c_type cs.
  Proof.
    pose proof (type_facts p pok) as (Hs1&_&Hs2&_).
    intros [r'|d x cs' Hc]; cbn; split; try assumption; [constructor|].
    apply (cont_chunks_nonstart x); exact Hc.
  Qed.

  (* split a tagged chunk list along the records *)
  Lemma split_tagged css : forall (T : list (nat * chunk)),
    map snd T = concat css ->
    exists cssT, T = concat cssT /\ Forall2 (fun cs csT => map snd csT = cs) css cssT.
  Proof.
    induction css as [|cs css IH]; intros T H.
    - cbn in H. destruct T; [|discriminate]. exists []. split; [reflexivity|constructor].
    - cbn [concat] in H. apply map_eq_app in H as (T1 & T2 & -> & H1 & H2).
      destruct (IH T2 H2) as (cssT & -> & HF). exists (T1 :: cssT). split; [reflexivity|].
      constructor; assumption.
  Qed.

  Lemma tag_blocks_snd bl : forall i, map snd (tag_blocks i bl) = concat bl.
  Proof.
    induction bl as [|cs bl IH]; intros i; [reflexivity|]. cbn [tag_blocks concat].
    rewrite map_app, IH, map_map. cbn. now rewrite map_id.
  Qed.

  Lemma Forall2_concat_inv {A B} (R : A -> B -> Prop) (aa : list (list A)) : forall (bb : list (list B)),
    Forall2 (fun a b => length a = length b) aa bb ->
    Forall2 R (concat aa) (concat bb) -> Forall2 (Forall2 R) aa bb.
  Proof.
    induction aa as [|a aa IH]; intros bb HL H; inversion HL as [|? b ? bb' Hl HL']; subst; [constructor|].
    cbn [concat] in H. apply Forall2_app_inv_l in H as (b1 & b2 & H1 & H2 & E).
    assert (Eb : b1 = b /\ b2 = concat bb').
    { pose proof (ListLemmas.Forall2_length _ _ _ H1) as L1.
      assert (length b1 = length b) by congruence.
      clear - E H. revert b E H. induction b1 as [|x b1 IHb]; intros [|y b] E Hlen; cbn in *; try lia; [auto|].
      injection E as -> E. destruct (IHb b E ltac:(lia)) as (-> & ->). auto. }
    destruct Eb as (-> & ->). constructor; [exact H1|]. apply IH; assumption.
  Qed.

  Lemma rec_shape_map (cs : list chunk) (csT : list (nat * chunk)) :
    map snd csT = cs -> rec_shape c_type cs -> rec_shape (fun tc => c_type (snd tc)) csT.
  Proof.
    intros <-. destruct csT as [|s cont]; cbn; [auto|]. intros (Hs & Hc). split; [exact Hs|].
    clear - Hc. induction cont as [|y cont IH]; cbn in *; constructor; inversion Hc; subst; auto.
  Qed.

  Lemma Forall2_compose {A B C} (R1 : A -> B -> Prop) (R2 : A -> C -> Prop) (R3 : B -> C -> Prop) a :
    forall b c, Forall2 R1 a b -> Forall2 R2 a c ->
    (forall x y z, R1 x y -> R2 x z -> R3 y z) -> Forall2 R3 b c.
  Proof.
    induction a as [|x a IH]; intros b c H1 H2 H; inversion H1; subst; inversion H2; subst; constructor.
    - eapply H; eassumption.
    - eapply IH; eassumption.
  Qed.

  Lemma recs_of_outs l : recs_of (outs l) = recs_of l.
  Proof.
    induction l as [|o l IH]; [reflexivity|]. destruct o; cbn; try exact IH. f_equal. exact IH.
  Qed.

  Lemma nth_map_default {A B} (f : A -> B) l k d d' :
    (k < length l)%nat -> nth k (map f l) d = f (nth k l d').
  Proof.
    revert k; induction l as [|x l IH]; intros k H; cbn in H; [lia|].
    destruct k; cbn; [reflexivity|]. apply IH. lia.
  Qed.

  Theorem damage_contained ck fl rs d :
    no_forgery crc p ck rs d = true ->
    exists keep,
      length keep = length rs /\
      recs_of (jread crc p false ck d) = select keep rs /\
      forall k, (k < length rs)%nat ->
        (forall i, In i (rec_blocks p rs k) ->
           nth i (stream_blocks p d) [] = nth i (stream_blocks p (jwrite crc p fl rs)) []) ->
        nth k keep false = true.
  Proof.
    intros HN. unfold no_forgery in HN. apply forall2b_Forall2 in HN.
    destruct (layout_chunks crc p pok rs) as (W & css & E & H).
    set (L := layout p rs) in *. set (bl := lay_blocks L) in *. set (bd := stream_blocks p d) in *.
    rewrite (jwrite_layout crc p pok). fold L.
    set (P := fun i => nth i bd [] = nth i (stream_blocks p (render_lay crc p L)) []).
    assert (HP : forall j, (j < length bl)%nat -> P (0 + j)%nat ->
                   parse_from crc p ck (nth j bd []) = map BChunk (nth j bl [])).
    { intros j Hj Hp. cbn in Hp. unfold P in Hp. rewrite Hp.
      apply (Forall2_nth _ bl _ [] [] j (stream_blocks_render L W) Hj). }
    destruct (blocks_obs ck P bl bd 0%nat HN (lay_blocks_shape L (layout_shape rs)) HP)
      as (os & Hv & He & Hl & Hq).
    assert (Ebl : concat bl = concat css) by (unfold bl; rewrite lay_blocks_concat; exact E).
    rewrite Ebl in Hv, He.
    destruct (split_obs css os Hv) as (oss & -> & Hoss).
    exists (map all_deliver oss). split.
    { rewrite map_length. rewrite <- (ListLemmas.Forall2_length _ _ _ Hoss). symmetry. eapply ListLemmas.Forall2_length; exact H. }
    split.
    { unfold jread. rewrite recs_of_outs, (reader_factor crc p pok). unfold stream_events. fold bd.
      rewrite <- He. rewrite <- (app_nil_r (flat_map _ _)).
      rewrite (asm_records rs css H oss [] Hoss). cbn. apply app_nil_r. }
    intros k Hk Hint.
    (* the tagged chunk stream, grouped by records *)
    destruct (split_tagged css (tag_blocks 0 bl)) as (cssT & ET & HT).
    { rewrite tag_blocks_snd. exact Ebl. }
    assert (Hgrp : group_recs p (fun tc => c_type (snd tc)) (tag_blocks 0 bl) = cssT).
    { rewrite ET. apply group_recs_concat.
      clear - H HT pok. revert cssT HT. induction H as [|r cs rs css Hr Hrs IH]; intros cssT HT;
        inversion HT; subst; constructor.
      - eapply rec_shape_map; [first [reflexivity | eassumption]|]. eapply rec_chunks_shape; exact Hr.
      - apply IH; assumption. }
    unfold rec_blocks in Hint. fold L bl in Hint. rewrite Hgrp in Hint.
    rewrite ET in Hq.
    assert (HLen : Forall2 (fun (a : list (nat * chunk)) (b : list cobs) => length a = length b) cssT oss).
    { apply (Forall2_compose _ _ _ css cssT oss HT Hoss).
      intros cs csT o H1 H2. rewrite <- (ListLemmas.Forall2_length _ _ _ H2), <- H1, map_length. reflexivity. }
    pose proof (Forall2_concat_inv (Q P) cssT oss HLen Hq) as Hqq.
    assert (Hkc : (k < length cssT)%nat).
    { rewrite <- (ListLemmas.Forall2_length _ _ _ HT), <- (ListLemmas.Forall2_length _ _ _ H). exact Hk. }
    pose proof (Forall2_nth _ cssT oss [] [] k Hqq Hkc) as Hk2.
    rewrite (nth_map_default all_deliver oss k false []).
    2:{ rewrite <- (ListLemmas.Forall2_length _ _ _ HLen). exact Hkc. }
    revert Hint. generalize (nth k cssT []) (nth k oss []) Hk2. clear.
    induction 1 as [|tc o csT os' Hq _ IH]; intros Hint; [reflexivity|].
    change (all_deliver (o :: os')) with (is_deliver o && all_deliver os').
    rewrite IH by (intros i Hi; apply Hint; cbn; right; exact Hi).
    rewrite (Hq (Hint (fst tc) (or_introl eq_refl))). reflexivity.
  Qed.

  Lemma ev_all cs os : Forall2 valid_obs cs os -> all_deliver os = true ->
    flat_map obs_events (combine cs os) = map BChunk cs.
  Proof.
    induction 1 as [|c o cs os _ _ IH]; [reflexivity|]. cbn. intros Ha.
    apply andb_prop in Ha as [H1 H2]. destruct o; try discriminate. cbn. f_equal. now apply IH.
  Qed.

  Lemma ev_bad k : forall cs r n os', Forall2 valid_obs cs (repeat ODeliver k ++ OBad r n :: os') ->
    exists rest, flat_map obs_events (combine cs (repeat ODeliver k ++ OBad r n :: os'))
                 = map BChunk (firstn k cs) ++ BBad r n :: rest.
  Proof.
    induction k as [|k IH]; intros cs r n os' H; cbn [repeat app] in *.
    - inversion H; subst. cbn. eexists. reflexivity.
    - inversion H as [|c ? cs' ? _ H']; subst. destruct (IH cs' r n os' H') as (rest & E).
      exists rest. cbn. rewrite E. reflexivity.
  Qed.

  Lemma strict_cut pre : forall st r n rest,
    assemble p true st (map BChunk pre ++ BBad r n :: rest) =
    assemble p true st (map BChunk pre ++ [BBad r n]).
  Proof.
    induction pre as [|c pre IH]; intros st r n rest; [reflexivity|].
    cbn [map app assemble]. destruct st.
    - destruct (is_start_type p (c_type c)); [destruct (is_last_type p (c_type c))|];
        first [apply IH | (f_equal; apply IH)].
    - destruct (is_last_type p (c_type c)); first [apply IH | (f_equal; apply IH)].
  Qed.

  Theorem damage_strict ck rs d :
    no_forgery crc p ck rs d = true ->
    exists m t, jread crc p true ck d = map Rec (firstn m rs) ++ t /\ (t = [] \/ t = [Err]).
  Proof.
    intros HN. unfold no_forgery in HN. apply forall2b_Forall2 in HN.
    destruct (layout_chunks crc p pok rs) as (W & css & E & H).
    set (L := layout p rs) in *. set (bl := lay_blocks L) in *. set (bd := stream_blocks p d) in *.
    destruct (blocks_obs ck (fun _ => False) bl bd 0%nat HN (lay_blocks_shape L (layout_shape rs)))
      as (os & Hv & He & Hl & _); [intros ? ? []|].
    assert (Ebl : concat bl = concat css) by (unfold bl; rewrite lay_blocks_concat; exact E).
    rewrite Ebl in Hv, He.
    unfold jread. rewrite (reader_factor crc p pok). unfold stream_events. fold bd. rewrite <- He.
    destruct Hl as [Ha|(k & r & n & os' & ->)].
    - rewrite (ev_all _ _ Hv Ha). exists (length rs), [].
      rewrite <- (app_nil_r (map BChunk _)), (assemble_records p pok true rs css [] H).
      cbn [assemble]. rewrite !app_nil_r, firstn_all, (outs_recs rs). auto.
    - destruct (ev_bad k _ r n os' Hv) as (rest & Er). rewrite Er, strict_cut.
      destruct (assemble_cut crc p pok true rs css H k [BBad r n]) as (m & t & Em & _ & _ & _ & Hrest).
      exists m, t. split; [exact Em|]. apply (cut_rest_end crc p pok true [BBad r n] t); [right; eauto|exact Hrest].
  Qed.

  Lemma evs_match_refl cs : evs_match (map BChunk cs) cs = true.
  Proof.
    induction cs as [|c cs IH]; [reflexivity|]. cbn [map evs_match].
    unfold chunk_eqb. rewrite N.eqb_refl, beq_refl, IH. reflexivity.
  Qed.

  (* the hypothesis no_forgery is satisfiable: it holds of every undamaged stream *)
  Theorem no_forgery_intact ck fl rs : no_forgery crc p ck rs (jwrite crc p fl rs) = true.
  Proof.
    rewrite (jwrite_layout crc p pok). unfold no_forgery.
    destruct (layout_chunks crc p pok rs) as (W & _).
    pose proof (stream_blocks_render (layout p rs) W) as HF.
    induction HF as [|cs blk bl bd Hp _ IH]; [reflexivity|].
    cbn [forall2b]. rewrite Hp, evs_match_refl, IH. reflexivity.
  Qed.
End DamageProofs.
