(* Codec/BlockLayoutProofs.v — what [block_layout] (BlockEnc.v) gives about offsets, keys and
   restart points of a laid-out block, sort.Search, and Next after its SOI reset: the facts the
   block iterator proofs (BlockSliceProofs.v, BlockProofs.v) start from. *)
From GL Require Import Base.CursorProofs Codec.Block Codec.BlockEnc.
From Coq Require Import ZArith Lia.

Local Open Scope N_scope.

Lemma search_f_mono (f : N -> option bool) (p : N -> bool) : forall fuel i j,
  i <= j -> (N.to_nat (j - i) < fuel)%nat ->
  (forall h, i <= h < j -> f h = Some (p h)) ->
  (forall h1 h2, i <= h1 -> h1 <= h2 -> h2 < j -> p h1 = true -> p h2 = true) ->
  exists s, search_f fuel f i j = Some s /\ i <= s <= j /\
            (forall h, i <= h < s -> p h = false) /\ (forall h, s <= h < j -> p h = true).
Proof.
  induction fuel as [|fu IH]; intros i j Hij Hf Hfp Hm; [lia|].
  cbn [search_f]. destruct (N.ltb_spec i j) as [Hlt|Hge].
  - set (h := (i + j) / 2).
    assert (Hh : i <= h < j).
    { unfold h. split; [apply N.div_le_lower_bound; lia | apply N.div_lt_upper_bound; lia]. }
    rewrite (Hfp h Hh). destruct (p h) eqn:Ph.
    + assert (A1 : forall x, i <= x < h -> f x = Some (p x)) by (intros x Hx; apply Hfp; lia).
      assert (A2 : forall h1 h2, i <= h1 -> h1 <= h2 -> h2 < h -> p h1 = true -> p h2 = true)
        by (intros h1 h2 H1 H2 H3; apply Hm; lia).
      destruct (IH i h ltac:(lia) ltac:(lia) A1 A2) as (s & Es & Hs & Hlo & Hhi).
      exists s. split; [exact Es|]. split; [lia|]. split; [exact Hlo|].
      intros x Hx. destruct (N.ltb_spec x h) as [L|L]; [apply Hhi; lia|].
      apply (Hm h x); try lia; try exact Ph.
    + assert (A1 : forall x, h + 1 <= x < j -> f x = Some (p x)) by (intros x Hx; apply Hfp; lia).
      assert (A2 : forall h1 h2, h + 1 <= h1 -> h1 <= h2 -> h2 < j -> p h1 = true -> p h2 = true)
        by (intros h1 h2 H1 H2 H3; apply Hm; lia).
      destruct (IH (h + 1) j ltac:(lia) ltac:(lia) A1 A2) as (s & Es & Hs & Hlo & Hhi).
      exists s. split; [exact Es|]. split; [lia|]. split; [|exact Hhi].
      intros x Hx. destruct (N.ltb_spec x (h + 1)) as [L|L]; [|apply Hlo; lia].
      destruct (p x) eqn:Px; [|reflexivity].
      assert (p h = true) by (apply (Hm x h); try lia; try exact Px). congruence.
  - exists i. split; [reflexivity|]. split; [lia|]. split; intros x Hx; lia.
Qed.

Lemma sort_search_mono n (f : N -> option bool) (p : N -> bool) :
  (forall h, h < n -> f h = Some (p h)) ->
  (forall h1 h2, h1 <= h2 -> h2 < n -> p h1 = true -> p h2 = true) ->
  exists s, sort_search n f = Some s /\ s <= n /\
            (forall h, h < s -> p h = false) /\ (forall h, s <= h < n -> p h = true).
Proof.
  intros Hf Hm. unfold sort_search.
  assert (A1 : forall h, 0 <= h < n -> f h = Some (p h)) by (intros h Hh; apply Hf; lia).
  assert (A2 : forall h1 h2, 0 <= h1 -> h1 <= h2 -> h2 < n -> p h1 = true -> p h2 = true)
    by (intros h1 h2 _ H1 H2; apply Hm; assumption).
  destruct (search_f_mono f p (S (N.to_nat n)) 0 n ltac:(lia) ltac:(lia) A1 A2) as (s & Es & Hs & Hlo & Hhi).
  exists s. split; [exact Es|]. split; [lia|]. split; intros h Hh; [apply Hlo | apply Hhi]; lia.
Qed.

Section Layout.
  Variable c : comparer.
  Hypothesis c_ok : comparer_ok c.
  Variable kvs : list (bytes * bytes).
  Variable b : block.
  Variable off : nat -> N.
  Variable ris : list nat.
  Hypothesis lay : block_layout kvs b off ris.
  Hypothesis srt : sorted c kvs.

  Local Notation len := (length kvs).

  Lemma nth_kv i : (i < len)%nat -> nth_error kvs i = Some (key_at kvs i, val_at kvs i).
  Proof.
    intros H. unfold key_at, val_at. rewrite <- surjective_pairing. apply nth_error_nth'. exact H.
  Qed.

  Lemma off_mono i j : (i < j)%nat -> (j <= len)%nat -> off i < off j.
  Proof.
    intros Hij Hj. induction j as [|j IH]; [lia|].
    pose proof (lay_step _ _ _ _ lay j ltac:(lia)) as Hs.
    destruct (Nat.eq_dec i j) as [->|]; [lia|]. specialize (IH ltac:(lia) ltac:(lia)). lia.
  Qed.

  Lemma off_mono_le i j : (i <= j)%nat -> (j <= len)%nat -> off i <= off j.
  Proof.
    intros Hij Hj. destruct (Nat.eq_dec i j) as [->|]; [lia|].
    pose proof (off_mono i j ltac:(lia) Hj). lia.
  Qed.

  Lemma off_inj i j : (i <= len)%nat -> (j <= len)%nat -> off i = off j -> i = j.
  Proof.
    intros Hi Hj E. destruct (Nat.lt_trichotomy i j) as [L|[L|L]]; [|exact L|].
    - pose proof (off_mono i j L Hj). lia.
    - pose proof (off_mono j i L Hi). lia.
  Qed.

  Lemma off_le_inv i j : (i <= len)%nat -> (j <= len)%nat -> off i <= off j -> (i <= j)%nat.
  Proof.
    intros Hi Hj E. destruct (Nat.le_gt_cases i j) as [L|L]; [exact L|].
    pose proof (off_mono j i L Hi). lia.
  Qed.

  Lemma off_ge i : (i <= len)%nat -> 3 * N.of_nat i <= off i.
  Proof.
    induction i as [|i IH]; intros H; [lia|].
    pose proof (lay_step _ _ _ _ lay i ltac:(lia)). specialize (IH ltac:(lia)). lia.
  Qed.

  Lemma len_le_data : (len <= length (b_data b))%nat.
  Proof.
    pose proof (off_ge len ltac:(lia)) as H. rewrite (lay_end _ _ _ _ lay) in H.
    pose proof (lay_data _ _ _ _ lay) as H2. unfold lenN in H2. lia.
  Qed.

  Lemma keys_lt i j : (i < j)%nat -> (j < len)%nat -> cmp c (key_at kvs i) (key_at kvs j) = Lt.
  Proof.
    intros Hij Hj. eapply (sorted_nth c c_ok kvs i j); eauto; apply nth_kv; lia.
  Qed.

  Lemma ris_lt r : (0 < len)%nat -> (r < length ris)%nat -> (nth r ris 0 < len)%nat.
  Proof.
    intros Hl Hr. apply (lay_ris_lt _ _ _ _ lay); [|exact Hr].
    intros E. unfold len in Hl. rewrite E in Hl. cbn in Hl. lia.
  Qed.

  Lemma ris_mono r1 r2 : (r1 <= r2)%nat -> (r2 < length ris)%nat -> (nth r1 ris 0 <= nth r2 ris 0)%nat.
  Proof.
    intros H1 H2. destruct (Nat.eq_dec r1 r2) as [->|]; [lia|].
    pose proof (lay_ris_incr _ _ _ _ lay r1 r2 ltac:(lia) H2). lia.
  Qed.

  (* restart indexes are distinct entries *)
  Lemma ris_len_le : (0 < len)%nat -> (length ris <= len)%nat.
  Proof.
    intros Hl. pose proof (lay_ris_incr _ _ _ _ lay) as Hinc.
    assert (Hge : forall r, (r < length ris)%nat -> (r <= nth r ris 0)%nat).
    { induction r as [|r IHr]; intros Hr; [lia|].
      specialize (IHr ltac:(lia)). pose proof (Hinc r (S r) ltac:(lia) Hr). lia. }
    destruct (Nat.eq_dec (length ris) 0) as [E|N]; [lia|].
    pose proof (Hge (length ris - 1)%nat ltac:(lia)). pose proof (ris_lt (length ris - 1) Hl ltac:(lia)). lia.
  Qed.

  (* the part of Next ([bi_next]) after the SOI reset: [bi_next_unfold] *)
  Definition next_body (it1 : biter) : bool * biter :=
    match bi_skip (bi_fuel it1) it1 with
    | inr it2 => (false, it2)
    | inl it2 =>
        if bi_offLimit it2 <=? bi_offset it2 then
          let it3 := bi_with_dir it2 DEOI in
          (false, if bi_offset it2 =? bi_offLimit it2 then it3 else bi_serr it3 ErrCorrupt)
        else
          match bi_read (bi_blk it2) (bi_key it2) (bi_offset it2) with
          | RdErr e => (false, bi_serr it2 e)
          | RdEnd => (false, bi_with_dir it2 DEOI)
          | RdOk k v n => (true, bi_with_pos it2 k v (bi_offset it2 + n) (bi_offset it2) (bi_ri it2) DForward)
          end
    end.

  Lemma bi_next_unfold it :
    bi_next it =
    if bdir_eqb (bi_dir it) DEOI || bi_has_err it then (false, it)
    else next_body (if bdir_eqb (bi_dir it) DSOI
                    then bi_with_pos it (bi_key it) (bi_value it) (bi_offStart it) (bi_prevOffset it) (bi_riStart it) (bi_dir it)
                    else it).
  Proof. reflexivity. Qed.

  Lemma restart_key_at r : (0 < len)%nat -> (r < length ris)%nat ->
    restart_key b (N.of_nat r) = Some (key_at kvs (nth r ris 0%nat)).
  Proof.
    intros Hl Hr. destruct (lay_rkey _ _ _ _ lay r Hr) as (k & E & Hk). rewrite E, Hk; [reflexivity|].
    intros E0. unfold len in Hl. rewrite E0 in Hl. cbn in Hl. lia.
  Qed.
End Layout.
