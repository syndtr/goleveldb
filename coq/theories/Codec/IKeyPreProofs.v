(* Codec/IKeyPreProofs.v — the laws of the internal-key order (iComparer.Compare) under the PREORDER contract
   of the user comparer (Base/OrderPre.v): no use of injectivity. *)
From GL Require Import Base.OrderPre Codec.IKey.
From Coq Require Import Lia.

Section Laws.
  Variable c : comparer.
  Hypothesis ok : comparer_pre_ok c.

  (* two internal keys compare equal iff they are the same user key (equivalent spellings) with the same trailer *)
  Lemma picmp_eq a b : icmp c a b = Eq <-> cmp c (uk a) (uk b) = Eq /\ num a = num b.
  Proof.
    unfold icmp. destruct (cmp c (uk a) (uk b)) eqn:E.
    - split.
      + intros H. apply N.compare_eq in H. split; [reflexivity|congruence].
      + intros [_ H]. rewrite H. apply N.compare_refl.
    - split; [discriminate|intros [H _]; discriminate].
    - split; [discriminate|intros [H _]; discriminate].
  Qed.

  Lemma picmp_refl a : icmp c a a = Eq.
  Proof. apply picmp_eq. split; [apply (pcmp_refl c ok)|reflexivity]. Qed.

  Lemma picmp_opp a b : icmp c b a = CompOpp (icmp c a b).
  Proof.
    unfold icmp. rewrite (pre_opp c ok (uk a) (uk b)).
    destruct (cmp c (uk a) (uk b)); cbn; auto. apply N.compare_antisym.
  Qed.

  Lemma picmp_trans a b d : icmp c a b = Lt -> icmp c b d = Lt -> icmp c a d = Lt.
  Proof.
    unfold icmp.
    destruct (cmp c (uk a) (uk b)) eqn:E1; destruct (cmp c (uk b) (uk d)) eqn:E2;
      try discriminate; intros H1 H2.
    - rewrite (pcmp_eq_trans c ok _ _ _ E1 E2). rewrite N.compare_lt_iff in *. lia.
    - rewrite (pcmp_eq_l c ok _ _ _ E1), E2. reflexivity.
    - rewrite <- (pcmp_eq_r c ok _ _ _ E2), E1. reflexivity.
    - rewrite (pre_trans c ok _ _ _ E1 E2). reflexivity.
  Qed.

  Lemma picmp_irrefl a : icmp c a a <> Lt.
  Proof. rewrite picmp_refl. discriminate. Qed.

  Lemma picmp_total a b : icmp c a b = Lt \/ icmp c a b = Eq \/ icmp c b a = Lt.
  Proof.
    destruct (icmp c a b) eqn:E.
    - right; left; reflexivity.
    - left; reflexivity.
    - right; right. rewrite picmp_opp, E. reflexivity.
  Qed.
End Laws.
