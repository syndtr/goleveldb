(* Codec/FilterBlockProofs.v — proofs about Codec/FilterBlock.v: every key added while the data
   block at offset o was open is reported present by the reader's filterBlock.contains at offset o. *)
From GL Require Import Base.BytesProofs Base.NIdxProofs Codec.BloomProofs Codec.FilterBlock.
From Coq Require Import Lia PeanoNat.

Lemma bloom_policy_ok p bpk : bparams_ok p -> policy_ok (bloom_policy p bpk).
Proof.
  intros ok ks f k x Hg Ha Hin. cbn in *. injection Ha as <-. split.
  - eapply bloom_no_false_negative; eauto.
  - unfold bloom_filter_of in Hg. eapply bloom_generated_nonempty; eauto.
Qed.

Lemma ifilter_ok P : policy_ok P -> policy_ok (ifilter P).
Proof.
  intros ok ks f k x Hg Ha Hin. cbn in *.
  destruct (ukey_of k) as [u|]; [|discriminate]. eapply ok; eauto.
Qed.

(* the offsets the writer records: running lengths of the emitted filters *)
Fixpoint offs_from (acc : N) (fs : list bytes) : list N :=
  match fs with
  | [] => []
  | f :: r => w32 acc :: offs_from (acc + lenN f) r
  end.

Lemma offs_from_length fs : forall acc, length (offs_from acc fs) = length fs.
Proof. induction fs as [|f r IH]; intros acc; cbn [offs_from length]; [reflexivity|]. now rewrite IH. Qed.

Lemma lenN_concat_cons (f : bytes) r : lenN (concat (f :: r)) = lenN f + lenN (concat r).
Proof. cbn [concat]. apply lenN_app. Qed.

Lemma offs_from_snoc fs : forall acc f,
  offs_from acc (fs ++ [f]) = offs_from acc fs ++ [w32 (acc + lenN (concat fs))].
Proof.
  induction fs as [|g r IH]; intros acc f; cbn [app offs_from].
  - cbn [concat]. rewrite lenN_nil, N.add_0_r. reflexivity.
  - rewrite IH, lenN_concat_cons, N.add_assoc. reflexivity.
Qed.

(* entry j (0 <= j <= length fs) of the offset array that finish writes *)
Lemma all_offs_nth fs : forall acc j, (j <= length fs)%nat ->
  nth_error (offs_from acc fs ++ [w32 (acc + lenN (concat fs))]) j
  = Some (w32 (acc + lenN (concat (firstn j fs)))).
Proof.
  induction fs as [|f r IH]; intros acc j Hj.
  - cbn [length] in Hj. assert (j = O) by lia. subst j. reflexivity.
  - destruct j as [|j].
    + cbn [firstn concat]. rewrite lenN_nil, N.add_0_r. reflexivity.
    + cbn [offs_from app nth_error firstn]. cbn [length] in Hj.
      rewrite !lenN_concat_cons, !N.add_assoc. apply IH. lia.
Qed.

Lemma all_offs_nth0 fs j : (j <= length fs)%nat ->
  nth_error (offs_from 0 fs ++ [w32 (lenN (concat fs))]) j = Some (w32 (lenN (concat (firstn j fs)))).
Proof. intros H. pose proof (all_offs_nth fs 0 j H) as H0. rewrite !N.add_0_l in H0. exact H0. Qed.

Lemma lenN_concat_firstn_le (fs : list bytes) j : lenN (concat (firstn j fs)) <= lenN (concat fs).
Proof.
  rewrite <- (firstn_skipn j fs) at 2. rewrite concat_app, lenN_app. lia.
Qed.


Lemma lenN_flat_le32 (l : list N) : lenN (flat_map le32 l) = 4 * lenN l.
Proof.
  induction l as [|x l IH]; [reflexivity|].
  cbn [flat_map]. rewrite lenN_app, IH, lenN_cons.
  replace (lenN (le32 x)) with 4 by (unfold lenN, le32; now rewrite le_encode_length). lia.
Qed.

Lemma u32_at_array (a c : bytes) (l : list N) j x :
  nth_error l j = Some x -> x < 2 ^ 32 ->
  u32_at (a ++ flat_map le32 l ++ c) (lenN a + 4 * N.of_nat j) = x.
Proof.
  intros Hn Hx. apply nth_error_split in Hn as (l1 & l2 & -> & <-).
  rewrite flat_map_app. cbn [flat_map]. rewrite <- !app_assoc.
  replace (a ++ flat_map le32 l1 ++ le32 x ++ flat_map le32 l2 ++ c)
    with ((a ++ flat_map le32 l1) ++ le32 x ++ flat_map le32 l2 ++ c) by now rewrite <- app_assoc.
  replace (lenN a + 4 * N.of_nat (length l1)) with (lenN (a ++ flat_map le32 l1))
    by (rewrite lenN_app, lenN_flat_le32; reflexivity).
  now apply u32_at_le32.
Qed.

Lemma sub_to_nat q l : l <= q -> q = l + N.of_nat (N.to_nat (q - l)).
Proof. lia. Qed.


Section Writer.
  Variable P : policy.
  Hypothesis Pok : policy_ok P.
  Variable lg : N.

  (* the tagged key (o, k) is covered by the emitted filters fs: slot o / 2^lg exists, is not empty and reports k *)
  Definition covered (fs : list bytes) (tk : N * bytes) : Prop :=
    exists f, nth_error fs (N.to_nat (fst tk / 2 ^ lg)) = Some f /\ p_has P f (snd tk) = Some true /\ f <> [].

  Lemma covered_app fs fs2 tk : covered fs tk -> covered (fs ++ fs2) tk.
  Proof.
    intros (f & Hn & H). exists f. split; [|exact H].
    rewrite nth_error_app1; [exact Hn|]. apply nth_error_Some. congruence.
  Qed.

  (* fs: the filters emitted so far; D: tagged keys already in a filter; Pn: tagged keys still pending *)
  Definition core (st : fwstate) (fs : list bytes) (D Pn : list (N * bytes)) : Prop :=
    fw_lg st = lg /\
    fw_buf st = concat fs /\
    fw_offsets st = offs_from 0 fs /\
    fw_nkeys st = lenN (fw_pending st) /\
    Forall2 (fun tk x => p_add P (snd tk) = Some x) Pn (fw_pending st) /\
    (forall tk, In tk Pn -> fst tk / 2 ^ lg = lenN fs) /\
    (forall tk, In tk D -> covered fs tk).

  Lemma core_generate st fs D Pn st' :
    core st fs D Pn -> fw_generate P st = Some st' ->
    exists f, core st' (fs ++ [f]) (D ++ Pn) [].
  Proof.
    intros (Hlg & Hbuf & Hoff & Hnk & Hpn & Htag & Hd) Hg. unfold fw_generate in Hg.
    destruct (N.ltb_spec 0 (fw_nkeys st)) as [Hpos|Hz].
    - destruct (p_gen P (fw_pending st)) as [f|] eqn:Hgen; [|discriminate].
      injection Hg as <-. exists f. unfold core; cbn [fw_lg fw_buf fw_offsets fw_nkeys fw_pending].
      repeat split.
      + exact Hlg.
      + rewrite concat_app, Hbuf. cbn [concat]. now rewrite app_nil_r.
      + rewrite offs_from_snoc, Hoff, Hbuf, N.add_0_l. reflexivity.
      + constructor.
      + intros tk [].
      + intros tk Hin. apply in_app_or in Hin as [Hin|Hin]; [apply covered_app; auto|].
        assert (Hx : exists x, p_add P (snd tk) = Some x /\ In x (fw_pending st)).
        { clear -Hpn Hin. induction Hpn as [|a b la lb Hab _ IH]; [destruct Hin|].
          destruct Hin as [->|Hin]; [exists b; split; [exact Hab|now left]|].
          destruct (IH Hin) as (x & Hx & Hi). exists x. split; [exact Hx|now right]. }
        destruct Hx as (x & Hx & Hi). destruct (Pok _ _ _ _ Hgen Hx Hi) as [Hh Hne].
        exists f. split; [|split; assumption].
        rewrite (Htag _ Hin). unfold lenN. rewrite Nat2N.id.
        rewrite nth_error_app2 by lia. now rewrite Nat.sub_diag.
    - injection Hg as <-. exists []. unfold core; cbn [fw_lg fw_buf fw_offsets fw_nkeys fw_pending].
      assert (Hpe : fw_pending st = []) by (apply lenN_0; lia).
      assert (Hpne : Pn = []) by (rewrite Hpe in Hpn; now inversion Hpn).
      subst Pn. rewrite app_nil_r.
      repeat split.
      + exact Hlg.
      + rewrite concat_app, Hbuf. cbn [concat]. now rewrite !app_nil_r.
      + rewrite offs_from_snoc, Hoff, Hbuf, N.add_0_l. reflexivity.
      + exact Hnk.
      + exact Hpn.
      + intros tk [].
      + intros tk Hin. apply covered_app; auto.
  Qed.

  Lemma core_gen_n n : forall st fs D Pn st',
    core st fs D Pn -> fw_gen_n P (S n) st = Some st' ->
    exists fs2, length fs2 = S n /\ core st' (fs ++ fs2) (D ++ Pn) [].
  Proof.
    induction n as [|n IH]; intros st fs D Pn st' Hc Hg; cbn [fw_gen_n] in Hg.
    - destruct (fw_generate P st) as [st1|] eqn:Hg1; [|discriminate]. injection Hg as <-.
      destruct (core_generate _ _ _ _ _ Hc Hg1) as (f & Hc1). exists [f]. split; [reflexivity|exact Hc1].
    - destruct (fw_generate P st) as [st1|] eqn:Hg1; [|discriminate].
      destruct (core_generate _ _ _ _ _ Hc Hg1) as (f & Hc1).
      destruct (IH _ _ _ _ _ Hc1 Hg) as (fs2 & Hl & Hc2).
      exists (f :: fs2). split; [cbn [length]; lia|].
      rewrite app_nil_r in Hc2. replace (fs ++ f :: fs2) with ((fs ++ [f]) ++ fs2) by now rewrite <- app_assoc.
      exact Hc2.
  Qed.

  (* the full invariant between operations: the number of emitted filters is cur / 2^lg *)
  Definition inv (st : fwstate) (cur : N) (fs : list bytes) (D Pn : list (N * bytes)) : Prop :=
    core st fs D Pn /\ lenN fs = cur / 2 ^ lg /\ lg < 64.

  Lemma inv_add st cur fs D Pn k st' :
    inv st cur fs D Pn -> fw_add P st k = Some st' -> inv st' cur fs D (Pn ++ [(cur, k)]).
  Proof.
    intros ((Hlg & Hbuf & Hoff & Hnk & Hpn & Htag & Hd) & Hlen & Hl64) Ha. unfold fw_add in Ha.
    destruct (p_add P k) as [x|] eqn:Hx; [|discriminate]. injection Ha as <-.
    split; [|split; assumption]. unfold core; cbn [fw_lg fw_buf fw_offsets fw_nkeys fw_pending].
    repeat split; try assumption.
    - rewrite lenN_app, Hnk. reflexivity.
    - apply Forall2_app; [exact Hpn|]. constructor; [exact Hx|constructor].
    - intros tk Hin. apply in_app_or in Hin as [Hin|[<-|[]]]; [now apply Htag|]. cbn [fst]. now rewrite Hlen.
  Qed.

  Lemma inv_flush st cur fs D Pn o st' :
    inv st cur fs D Pn -> cur <= o -> fw_flush P st o = Some st' ->
    exists fs' D' Pn', inv st' o fs' D' Pn' /\ D' ++ Pn' = D ++ Pn.
  Proof.
    intros (Hc & Hlen & Hl64) Hle Hf. unfold fw_flush in Hf.
    pose proof Hc as (Hlg & _ & Hoff & _). rewrite Hlg in Hf.
    rewrite (proj2 (N.leb_gt 64 lg) Hl64) in Hf.
    assert (Hol : lenN (fw_offsets st) = lenN fs).
    { rewrite Hoff. unfold lenN. now rewrite offs_from_length. }
    rewrite Hol in Hf.
    assert (Hmono : lenN fs <= o / 2 ^ lg).
    { rewrite Hlen. apply N.div_le_mono; [apply N.pow_nonzero; discriminate|exact Hle]. }
    pose proof (sub_to_nat _ _ Hmono) as Hq.
    destruct (N.to_nat (o / 2 ^ lg - lenN fs)) as [|n].
    - cbn [fw_gen_n] in Hf. injection Hf as <-. exists fs, D, Pn. split; [|reflexivity].
      split; [exact Hc|]. split; [rewrite Hq; symmetry; apply N.add_0_r | exact Hl64].
    - destruct (core_gen_n _ _ _ _ _ _ Hc Hf) as (fs2 & Hl2 & Hc2).
      exists (fs ++ fs2), (D ++ Pn), []. split; [|now rewrite app_nil_r].
      split; [exact Hc2|]. split; [|assumption].
      rewrite lenN_app. unfold lenN at 2. rewrite Hl2. symmetry. exact Hq.
  Qed.

  Lemma inv_run ops : forall st cur fs D Pn st',
    inv st cur fs D Pn -> flushes_mono ops cur -> fw_run P ops st = Some st' ->
    exists cur' fs' D' Pn', inv st' cur' fs' D' Pn' /\ D' ++ Pn' = (D ++ Pn) ++ tagged ops cur.
  Proof.
    induction ops as [|op r IH]; intros st cur fs D Pn st' Hi Hm Hr; cbn [fw_run] in Hr.
    - injection Hr as <-. exists cur, fs, D, Pn. split; [exact Hi|]. cbn [tagged]. now rewrite app_nil_r.
    - destruct (fw_step P st op) as [st1|] eqn:Hs; [|discriminate].
      destruct op as [k|o]; cbn [fw_step flushes_mono tagged] in *.
      + pose proof (inv_add _ _ _ _ _ _ _ Hi Hs) as Hi1.
        destruct (IH _ _ _ _ _ _ Hi1 Hm Hr) as (cur' & fs' & D' & Pn' & Hi' & He).
        exists cur', fs', D', Pn'. split; [exact Hi'|]. rewrite He. now rewrite <- !app_assoc.
      + destruct Hm as [Hle Hm].
        destruct (inv_flush _ _ _ _ _ _ _ Hi Hle Hs) as (fs1 & D1 & Pn1 & Hi1 & He1).
        destruct (IH _ _ _ _ _ _ Hi1 Hm Hr) as (cur' & fs' & D' & Pn' & Hi' & He).
        exists cur', fs', D', Pn'. split; [exact Hi'|]. now rewrite He, He1.
  Qed.

  (* what finish writes: the filters, their offsets, the offset of the offset array, baseLg *)
  Definition block_of (fs : list bytes) : bytes :=
    concat fs ++ flat_map le32 (offs_from 0 fs ++ [w32 (lenN (concat fs))]) ++ [lg mod 256].

  Lemma core_finish st fs D Pn data :
    core st fs D Pn -> fw_finish P st = Some data ->
    exists fs', data = block_of fs' /\ forall tk, In tk (D ++ Pn) -> covered fs' tk.
  Proof.
    intros Hc Hf. unfold fw_finish in Hf.
    destruct (N.ltb_spec 0 (fw_nkeys st)) as [Hpos|Hz].
    - destruct (fw_generate P st) as [st1|] eqn:Hg; [|discriminate]. injection Hf as <-.
      destruct (core_generate _ _ _ _ _ Hc Hg) as (f & (Hlg & Hbuf & Hoff & _ & _ & _ & Hd)).
      exists (fs ++ [f]). split; [|exact Hd]. unfold block_of. now rewrite Hlg, Hbuf, Hoff.
    - injection Hf as <-. destruct Hc as (Hlg & Hbuf & Hoff & Hnk & Hpn & _ & Hd).
      assert (Hpe : fw_pending st = []) by (apply lenN_0; lia).
      assert (Hpne : Pn = []) by (rewrite Hpe in Hpn; now inversion Hpn).
      subst Pn. rewrite app_nil_r. exists fs. split; [|exact Hd].
      unfold block_of. now rewrite Hlg, Hbuf, Hoff.
  Qed.


  Lemma block_of_length fs : lenN (block_of fs) = lenN (concat fs) + 4 * lenN fs + 5.
  Proof.
    unfold block_of. rewrite !lenN_app, lenN_flat_le32, lenN_app.
    unfold lenN at 2. rewrite offs_from_length. fold (lenN fs).
    change (lenN [w32 (lenN (concat fs))]) with 1. change (lenN [lg mod 256]) with 1. lia.
  Qed.

  Lemma block_body_length fs :
    lenN (concat fs ++ flat_map le32 (offs_from 0 fs ++ [w32 (lenN (concat fs))]))
    = lenN (concat fs) + 4 * lenN fs + 4.
  Proof.
    rewrite lenN_app, lenN_flat_le32, lenN_app.
    replace (lenN (offs_from 0 fs)) with (lenN fs) by (unfold lenN; now rewrite offs_from_length).
    change (lenN [w32 (lenN (concat fs))]) with 1. lia.
  Qed.

  Lemma block_of_parse fs : lg < 64 -> lenN (block_of fs) < 2 ^ 32 ->
    fb_parse (block_of fs) =
      Some {| fb_data := block_of fs; fb_ooff := lenN (concat fs); fb_lg := lg; fb_num := lenN fs |}.
  Proof.
    intros Hl Hb. pose proof (block_of_length fs) as Hlen.
    set (B := lenN (concat fs)) in *. set (F := lenN fs) in *.
    assert (HB : B < 2 ^ 32) by lia.
    unfold fb_parse. rewrite Hlen.
    destruct (N.ltb_spec (B + 4 * F + 5) 5); [lia|].
    replace (B + 4 * F + 5 - 5) with (B + 4 * F) by lia.
    assert (Hu : u32_at (block_of fs) (B + 4 * F) = B).
    { unfold block_of. fold B.
      replace (B + 4 * F) with (lenN (concat fs) + 4 * N.of_nat (length fs)) by reflexivity.
      apply u32_at_array; [|exact HB].
      replace (length fs) with (length (offs_from 0 fs)) by apply offs_from_length.
      rewrite nth_error_app2 by lia. rewrite Nat.sub_diag. cbn [nth_error]. f_equal. now apply w32_small. }
    rewrite Hu. destruct (N.ltb_spec (B + 4 * F) B); [lia|].
    f_equal. f_equal.
    - unfold block_of. rewrite app_assoc.
      pose proof (block_body_length fs) as Hbl. fold B in Hbl. change (lenN fs) with F in Hbl. fold B.
      rewrite get_at_app_ge by lia.
      match goal with |- get_at _ ?i = _ => replace i with 0 by lia end.
      cbn [get_at N.eqb]. apply N.mod_small.
      assert (2 ^ 6 <= 2 ^ 8) by (apply N.pow_le_mono_r; lia).
      assert (lg < 2 ^ 6) by exact Hl. change (2 ^ 8) with 256 in *. lia.
    - replace (B + 4 * F - B) with (4 * F) by lia. rewrite N.mul_comm. apply N.div_mul. discriminate.
  Qed.

  Lemma block_of_contains fs tk : lg < 64 -> lenN (block_of fs) < 2 ^ 32 ->
    covered fs tk -> fb_may_contain P (block_of fs) (fst tk) (snd tk) = Some true.
  Proof.
    intros Hl Hb (f & Hn & Hh & Hne). unfold fb_may_contain. rewrite block_of_parse by assumption.
    unfold fb_contains; cbn [fb_data fb_ooff fb_lg fb_num].
    rewrite N.shiftr_div_pow2. set (i := fst tk / 2 ^ lg) in *.
    pose proof (block_of_length fs) as Hlen.
    set (B := lenN (concat fs)) in *.
    assert (HB : B < 2 ^ 32) by lia.
    assert (Hi : (N.to_nat i < length fs)%nat) by (apply nth_error_Some; congruence).
    destruct (N.ltb_spec i (lenN fs)) as [_|Hge]; [|unfold lenN in Hge; lia].
    assert (Hoff : forall j, (j <= length fs)%nat ->
              u32_at (block_of fs) (B + N.of_nat j * 4) = lenN (concat (firstn j fs))).
    { intros j Hj. unfold block_of. fold B. rewrite (N.mul_comm (N.of_nat j) 4).
      apply u32_at_array.
      - unfold B. rewrite all_offs_nth0 by exact Hj. f_equal. apply w32_small.
        pose proof (lenN_concat_firstn_le fs j). fold B in H. lia.
      - pose proof (lenN_concat_firstn_le fs j). fold B in H. lia. }
    replace (B + i * 4) with (B + N.of_nat (N.to_nat i) * 4) by (rewrite N2Nat.id; reflexivity).
    rewrite Hoff by lia.
    replace (B + N.of_nat (N.to_nat i) * 4 + 4) with (B + N.of_nat (S (N.to_nat i)) * 4) by lia.
    rewrite Hoff by lia.
    apply nth_error_split in Hn as (l1 & l2 & Hfs & Hl1).
    assert (E1 : firstn (N.to_nat i) fs = l1).
    { rewrite Hfs, <- Hl1. rewrite firstn_app, Nat.sub_diag, firstn_all. cbn [firstn]. apply app_nil_r. }
    assert (E2 : firstn (S (N.to_nat i)) fs = l1 ++ [f]).
    { rewrite Hfs, <- Hl1. rewrite firstn_app, firstn_all2 by lia.
      replace (S (length l1) - length l1)%nat with 1%nat by lia. reflexivity. }
    rewrite E1, E2, concat_app. cbn [concat]. rewrite app_nil_r, lenN_app.
    assert (Hfpos : 0 < lenN f).
    { destruct f; [contradiction|]. rewrite lenN_cons. lia. }
    assert (Hle : lenN (concat l1) + lenN f <= B).
    { unfold B. rewrite Hfs, concat_app, lenN_app. cbn [concat]. rewrite lenN_app. lia. }
    destruct (N.ltb_spec (lenN (concat l1)) (lenN (concat l1) + lenN f)); [|lia].
    destruct (N.leb_spec (lenN (concat l1) + lenN f) B); [|lia]. cbn [andb].
    replace (slice (block_of fs) (lenN (concat l1)) (lenN (concat l1) + lenN f)) with f; [exact Hh|].
    unfold block_of. rewrite Hfs, concat_app. cbn [concat]. rewrite <- !app_assoc.
    symmetry. apply slice_app3.
  Qed.

  (* what a completed run of the writer returns *)
  Lemma fw_build_block_of ops data :
    flushes_mono ops 0 -> fw_build P lg ops = Some data ->
    lg < 64 /\ exists fs, data = block_of fs /\ forall tk, In tk (tagged ops 0) -> covered fs tk.
  Proof.
    intros Hm Hb. unfold fw_build, fw_new, fw_flush in Hb. cbn [fw_init fw_lg fw_offsets] in Hb.
    destruct (N.leb_spec 64 lg) as [|Hl]; [discriminate|]. split; [exact Hl|].
    rewrite N.div_0_l in Hb by (apply N.pow_nonzero; discriminate).
    cbn [lenN length N.of_nat] in Hb. rewrite N.sub_0_r in Hb. cbn [N.to_nat fw_gen_n] in Hb.
    destruct (fw_run P ops (fw_init lg)) as [st|] eqn:Hr; [|discriminate].
    assert (Hi0 : inv (fw_init lg) 0 [] [] []).
    { split; [|split; [|exact Hl]].
      - unfold core; cbn. repeat split; try reflexivity; try constructor; intros tk [].
      - rewrite N.div_0_l by (apply N.pow_nonzero; discriminate). reflexivity. }
    destruct (inv_run _ _ _ _ _ _ _ Hi0 Hm Hr) as (cur' & fs' & D' & Pn' & (Hc & _ & _) & He).
    destruct (core_finish _ _ _ _ _ Hc Hb) as (fs2 & E & Hcov).
    exists fs2. split; [exact E|]. intros tk Hin. apply Hcov. rewrite He. exact Hin.
  Qed.

  Theorem fw_no_false_negative ops data :
    flushes_mono ops 0 -> fw_build P lg ops = Some data -> lenN data < 2 ^ 32 ->
    forall o k, In (o, k) (tagged ops 0) -> fb_may_contain P data o k = Some true.
  Proof.
    intros Hm Hb Hlen o k Hin. destruct (fw_build_block_of ops data Hm Hb) as (Hl & fs2 & -> & Hcov).
    apply (block_of_contains fs2 (o, k)); try assumption. apply Hcov. exact Hin.
  Qed.

  (* the filter changes the cost of a lookup, not its result: whenever the data block at o holds
     an entry for a key that was added while that block was open, the filtered lookup returns what
     the unfiltered one returns; and when the unfiltered lookup finds nothing, so does the filtered
     one (unless the policy's Contains panics) *)
  Theorem fw_filter_changes_no_result ops data {A} (unfiltered : N -> bytes -> option A) :
    flushes_mono ops 0 -> fw_build P lg ops = Some data -> lenN data < 2 ^ 32 ->
    (forall o k, unfiltered o k <> None -> In (o, k) (tagged ops 0)) ->
    forall o k, fb_may_contain P data o k <> None ->
      find_with_filter P data o k (unfiltered o k) = Some (unfiltered o k).
  Proof.
    intros Hm Hb Hlen Hst o k Hnp. unfold find_with_filter.
    destruct (unfiltered o k) as [v|] eqn:Hu.
    - rewrite (fw_no_false_negative ops data Hm Hb Hlen o k); [reflexivity|].
      apply Hst. rewrite Hu. discriminate.
    - destruct (fb_may_contain P data o k) as [[|]|]; [reflexivity|reflexivity|contradiction].
  Qed.

  (* the block the writer produces is accepted by the reader's parser with the writer's baseLg *)
  Theorem fw_block_parses ops data :
    fw_build P lg ops = Some data -> flushes_mono ops 0 -> lenN data < 2 ^ 32 ->
    exists b, fb_parse data = Some b /\ fb_lg b = lg /\ fb_data b = data.
  Proof.
    intros Hb Hm Hlen. destruct (fw_build_block_of ops data Hm Hb) as (Hl & fs2 & -> & _).
    eexists. split; [apply block_of_parse; assumption|]. split; reflexivity.
  Qed.
End Writer.

(* the writer does not panic when the policy does not and baseLg < 64 *)
Section Total.
  Variable P : policy.
  Hypothesis add_total : forall k, p_add P k <> None.
  Hypothesis gen_total : forall ks, p_gen P ks <> None.

  Lemma fw_generate_total st : exists st', fw_generate P st = Some st' /\ fw_lg st' = fw_lg st.
  Proof.
    unfold fw_generate. destruct (0 <? fw_nkeys st).
    - destruct (p_gen P (fw_pending st)) eqn:E; [|now apply gen_total in E].
      eexists; split; reflexivity.
    - eexists; split; reflexivity.
  Qed.

  Lemma fw_gen_n_total n : forall st, exists st', fw_gen_n P n st = Some st' /\ fw_lg st' = fw_lg st.
  Proof.
    induction n as [|n IH]; intros st; cbn [fw_gen_n]; [eexists; split; reflexivity|].
    destruct (fw_generate_total st) as (st1 & -> & H1).
    destruct (IH st1) as (st2 & -> & H2). exists st2. split; [reflexivity|congruence].
  Qed.

  Lemma fw_run_total ops : forall st, fw_lg st < 64 -> exists st', fw_run P ops st = Some st' /\ fw_lg st' = fw_lg st.
  Proof.
    induction ops as [|op r IH]; intros st Hl; cbn [fw_run]; [eexists; split; reflexivity|].
    assert (Hs : exists st1, fw_step P st op = Some st1 /\ fw_lg st1 = fw_lg st).
    { destruct op as [k|o]; cbn [fw_step].
      - unfold fw_add. destruct (p_add P k) eqn:E; [|now apply add_total in E]. eexists; split; reflexivity.
      - unfold fw_flush. destruct (N.leb_spec 64 (fw_lg st)); [lia|]. apply fw_gen_n_total. }
    destruct Hs as (st1 & -> & H1). destruct (IH st1) as (st2 & -> & H2); [lia|].
    exists st2. split; [reflexivity|congruence].
  Qed.

  Theorem fw_build_total lg ops : lg < 64 -> exists data, fw_build P lg ops = Some data.
  Proof.
    intros Hl. unfold fw_build, fw_new, fw_flush. cbn [fw_init fw_lg].
    destruct (N.leb_spec 64 lg); [lia|].
    destruct (fw_gen_n_total (N.to_nat (0 / 2 ^ lg - lenN (fw_offsets (fw_init lg)))) (fw_init lg)) as (st0 & E0 & H0).
    cbn [fw_init fw_lg] in E0. rewrite E0.
    destruct (fw_run_total ops st0) as (st & -> & _); [cbn in H0; lia|].
    unfold fw_finish. destruct (0 <? fw_nkeys st).
    - destruct (fw_generate_total st) as (st' & -> & _). eexists; reflexivity.
    - eexists; reflexivity.
  Qed.
End Total.
