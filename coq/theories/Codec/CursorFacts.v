(* Codec/CursorFacts.v — list positions and the reference cursor's seek, as the block and table
   proofs use them: what [c_seek] returning a position or the end says about the keys, and the
   converse for a list given as a split. *)
From GL Require Import Base.Cursor Base.CursorProofs.
From Coq Require Import List Arith Lia.
Import ListNotations.

Lemma nth_error_firstn_lt {A} (l : list A) : forall i i', (i' < i)%nat -> nth_error (firstn i l) i' = nth_error l i'.
Proof.
  induction l as [|x l IH]; intros i i' H; [rewrite firstn_nil; destruct i'; reflexivity|].
  destruct i as [|i]; [lia|]. destruct i' as [|i']; [reflexivity|]. cbn [firstn nth_error]. apply IH. lia.
Qed.

Lemma nth_error_skipn {A} (l : list A) : forall n i, nth_error (skipn n l) i = nth_error l (n + i).
Proof.
  induction l as [|x l IH]; intros n i.
  - rewrite skipn_nil. destruct i, n; reflexivity.
  - destruct n as [|n]; [reflexivity|]. cbn [skipn plus nth_error]. apply IH.
Qed.

Lemma c_seek_cases {V} c key (l : list (bytes * V)) :
  (exists i, c_seek c l key = CAt i) \/ c_seek c l key = CEOI.
Proof. unfold c_seek. destruct (first_ge c key l 0); eauto. Qed.

Lemma c_seek_at {V} c key (l : list (bytes * V)) i :
  c_seek c l key = CAt i ->
  exists kv, nth_error l i = Some kv /\ cmp c (fst kv) key <> Lt /\
             (forall j' kv', (j' < i)%nat -> nth_error l j' = Some kv' -> cmp c (fst kv') key = Lt).
Proof.
  unfold c_seek. destruct (first_ge c key l 0) as [i'|] eqn:E; [|discriminate].
  intros H. injection H as ->.
  apply first_ge_some_elim in E as (_ & (ki & vi & H2 & H3) & H4). rewrite Nat.sub_0_r in *.
  exists (ki, vi). split; [exact H2|]. split; [exact H3|].
  intros j' [k' v'] Hj Hn. eapply H4; eauto.
Qed.

Lemma c_seek_eoi_nth {V} c key (l : list (bytes * V)) :
  c_seek c l key = CEOI -> forall j kv, nth_error l j = Some kv -> cmp c (fst kv) key = Lt.
Proof.
  unfold c_seek. destruct (first_ge c key l 0) as [i'|] eqn:E; [discriminate|]. intros _.
  intros j [k v] Hn. eapply first_ge_none_elim; eauto.
Qed.

Lemma first_ge_split {V} c key (pre : list (bytes * V)) kv post :
  (forall x, In x pre -> cmp c (fst x) key = Lt) -> cmp c (fst kv) key <> Lt ->
  first_ge c key (pre ++ kv :: post) 0 = Some (length pre).
Proof.
  intros Hpre Hkv. destruct kv as [k v].
  assert (E : nth_error (pre ++ (k, v) :: post) (length pre) = Some (k, v)).
  { rewrite nth_error_app2 by lia. rewrite Nat.sub_diag. reflexivity. }
  apply (first_ge_some_intro c _ key 0 (length pre) k v E Hkv).
  intros j' k' v' Hj Hn. rewrite nth_error_app1 in Hn by exact Hj.
  apply (Hpre (k', v')). eapply nth_error_In; eauto.
Qed.

Lemma sorted_nth_intro {V} c (l : list (bytes * V)) :
  (forall i ki vi kj vj, nth_error l i = Some (ki, vi) -> nth_error l (S i) = Some (kj, vj) -> cmp c ki kj = Lt) ->
  sorted c l.
Proof.
  induction l as [|[k v] r IH]; intros H; [exact I|].
  destruct r as [|[k2 v2] r']; [exact I|].
  cbn [sorted sorted_from]. split.
  - apply (H 0%nat k v k2 v2); reflexivity.
  - assert (S2 : sorted c ((k2, v2) :: r')).
    { apply IH. intros i ki vi kj vj H1 H2. apply (H (S i) ki vi kj vj); assumption. }
    exact S2.
Qed.

(* the parts of a sorted list are sorted, and the first lies below the second *)
Lemma sorted_app_inv {V} c (c_ok : comparer_ok c) (a b : list (bytes * V)) : sorted c (a ++ b) ->
  sorted c a /\ sorted c b /\ forall x y, In x a -> In y b -> cmp c (fst x) (fst y) = Lt.
Proof.
  intros Hs. split; [|split].
  - apply sorted_nth_intro. intros i ki vi kj vj H1 H2.
    apply (sorted_nth c c_ok _ i (S i) ki vi kj vj Hs (Nat.lt_succ_diag_r i)); rewrite nth_error_app1;
      try assumption; apply nth_error_Some; congruence.
  - apply sorted_nth_intro. intros i ki vi kj vj H1 H2.
    apply (sorted_nth c c_ok _ (length a + i) (length a + S i) ki vi kj vj Hs); [lia| |];
      rewrite nth_error_app2, Nat.add_comm, Nat.add_sub by lia; assumption.
  - intros [kx vx] [ky vy] Hx Hy. apply In_nth_error in Hx as (i & Hi). apply In_nth_error in Hy as (j & Hj).
    assert (Hl : (i < length a)%nat) by (apply nth_error_Some; congruence).
    apply (sorted_nth c c_ok _ i (length a + j) kx vx ky vy Hs); [lia | rewrite nth_error_app1; assumption |].
    rewrite nth_error_app2, Nat.add_comm, Nat.add_sub by lia. exact Hj.
Qed.
