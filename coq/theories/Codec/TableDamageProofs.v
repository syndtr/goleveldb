(* Codec/TableDamageProofs.v — Stage C, damage: a block whose stored checksum differs from the
   checksum of its (possibly altered) bytes is never returned as data by a verifying read, and a
   reader some of whose block fetches fail with Corrupt answers every lookup either exactly as
   the intact reader does or with Corrupted — never with other data.  Before that: the call graph of
   the table iterator's moves walked once ([ti_step_inv]: a predicate on the index iterator and one on the
   data iterator are kept by every call), for the files that need an invariant of it. *)
From GL Require Import Base.Bytes Base.Varint Base.Order Base.Cursor Codec.Block Codec.Table.

Local Open Scope N_scope.

Lemma ti_next_f_S c rd f t : ti_next_f c rd (S f) t =
  if ti_has_err t then (false, t) else
  match ti_data t with
  | Some _ => ti_enter bi_next (ti_advance c rd (ti_next_f c rd f)) t
  | None => ti_advance c rd (ti_next_f c rd f) t
  end.
Proof. cbn [ti_next_f]. unfold ti_enter. destruct (ti_has_err t), (ti_data t); reflexivity. Qed.

Lemma ti_prev_f_S c rd f t : ti_prev_f c rd (S f) t =
  if ti_has_err t then (false, t) else
  match ti_data t with
  | Some _ => ti_enter bi_prev (ti_retreat c rd (ti_prev_f c rd f)) t
  | None => ti_retreat c rd (ti_prev_f c rd f) t
  end.
Proof. cbn [ti_prev_f]. unfold ti_enter. destruct (ti_has_err t), (ti_data t); reflexivity. Qed.

(* First, Last and Seek move the index iterator by [o], open the block it stops at and continue there *)
Definition ti_move (c : comparer) (rd : treader) (o : cop) (cont : titer -> bool * titer) (t : titer) : bool * titer :=
  if ti_has_err t then (false, t) else
  let '(ok, ix) := bi_step c (ti_index t) o in
  let t1 := ti_with t ix (ti_data t) (ti_err t) in
  if negb ok then (false, ti_clear_data (ti_index_err t1)) else cont (ti_set_data c rd t1).

Lemma ti_step_move c rd t o : ti_step c rd t o =
  match o with
  | OpFirst => ti_move c rd o (ti_next c rd) t
  | OpLast => ti_move c rd o (ti_enter bi_last (ti_prev c rd)) t
  | OpSeek k => ti_move c rd o (ti_enter (fun it => bi_seek c it k) (ti_next c rd)) t
  | OpNext => ti_next c rd t
  | OpPrev => ti_prev c rd t
  end.
Proof. destruct o; reflexivity. Qed.

(* A property [Ix] of the index iterator and a property [Id] of the data iterator that the block
   iterator's methods keep, [Id] holding of every freshly opened block, are kept by every method of
   the table iterator; the strict flag and the slice never change. *)
Section StepInv.
  Variable c : comparer.
  Variable rd : treader.
  Variable Ix : biter -> Prop.
  Variable Id : option diter -> Prop.
  Variable t0 : titer.

  Definition tinv (t : titer) : Prop :=
    Ix (ti_index t) /\ Id (ti_data t) /\ ti_strict t = ti_strict t0 /\ ti_slice t = ti_slice t0.

  Hypothesis Ix_step : forall ix o, Ix ix -> Ix (snd (bi_step c ix o)).
  Hypothesis Id_none : Id None.
  Hypothesis Id_step : forall d o, Id (Some d) -> Id (Some (snd (d_lift (fun it => bi_step c it o) d))).
  Hypothesis Id_get : forall t ix o, Ix ix -> bi_step c ix o = (true, ti_index t) -> Id (index_get c rd t).

  Definition keeps (self : titer -> bool * titer) : Prop := forall t, tinv t -> tinv (snd (self t)).

  Lemma tinv_with t ix d e : tinv t -> Ix ix -> Id d -> tinv (ti_with t ix d e).
  Proof. intros (_ & _ & Hs & Hl) Hx Hd. repeat split; assumption. Qed.

  Lemma tinv_index_err t : tinv t -> tinv (ti_index_err t).
  Proof.
    intros H. unfold ti_index_err. destruct (bi_err (ti_index t)); [|exact H].
    apply tinv_with; [exact H | apply H | apply H].
  Qed.

  Lemma tinv_clear t : tinv t -> tinv (ti_clear_data t).
  Proof. intros H. apply tinv_with; [exact H | apply H | exact Id_none]. Qed.

  Lemma tinv_data_err t d t' : tinv t -> ti_data_err t d = Some t' -> tinv t'.
  Proof.
    intros H E. unfold ti_data_err in E. destruct (d_err d); [|discriminate].
    destruct (ti_strict t || _); [|discriminate]. injection E as <-.
    apply tinv_with; [exact H | apply H | apply H].
  Qed.

  (* the head shared by ti_advance, ti_retreat and ti_move *)
  Lemma index_move_inv t o : tinv t ->
    let '(ok, ix) := bi_step c (ti_index t) o in
    let t1 := ti_with t ix (ti_data t) (ti_err t) in
    tinv t1 /\ (ok = true -> tinv (ti_set_data c rd t1)).
  Proof.
    intros H. pose proof (Ix_step _ o (proj1 H)) as Hx.
    destruct (bi_step c (ti_index t) o) as [ok ix] eqn:E. cbn [snd] in Hx.
    assert (H1 : tinv (ti_with t ix (ti_data t) (ti_err t))) by (apply tinv_with; [exact H | exact Hx | apply H]).
    split; [exact H1|]. intros ->. apply tinv_with; [exact H1 | exact Hx |].
    exact (Id_get (ti_with t ix (ti_data t) (ti_err t)) _ _ (proj1 H) E).
  Qed.

  Lemma advance_inv self : keeps self -> keeps (ti_advance c rd self).
  Proof.
    intros Hs t H. unfold ti_advance. pose proof (index_move_inv t OpNext H) as Hm. cbn [bi_step] in Hm.
    destruct (bi_next (ti_index t)) as [ok ix]. destruct Hm as [H1 H2]. destruct ok; cbn [negb].
    - apply Hs, H2. reflexivity.
    - apply tinv_index_err, H1.
  Qed.

  Lemma enter_inv pos self : (forall d, Id (Some d) -> Id (Some (snd (d_lift pos d)))) -> keeps self ->
    keeps (ti_enter pos self).
  Proof.
    intros Hp Hs t H. unfold ti_enter. destruct (ti_data t) as [d|] eqn:Ed; [|exact H].
    assert (H3 : tinv (ti_with t (ti_index t) (Some (snd (d_lift pos d))) (ti_err t))).
    { apply tinv_with; [exact H | apply H | apply Hp]. rewrite <- Ed. apply H. }
    destruct (d_lift pos d) as [ok d']. cbn [snd] in H3. destruct ok; [exact H3|].
    destruct (ti_data_err _ d') as [t4|] eqn:E4.
    - exact (tinv_data_err _ _ _ H3 E4).
    - apply Hs, tinv_clear, H3.
  Qed.

  Lemma retreat_inv self : keeps self -> keeps (ti_retreat c rd self).
  Proof.
    intros Hs t H. unfold ti_retreat. pose proof (index_move_inv t OpPrev H) as Hm. cbn [bi_step] in Hm.
    destruct (bi_prev (ti_index t)) as [ok ix]. destruct Hm as [H1 H2]. destruct ok; cbn [negb].
    - apply (enter_inv bi_last); [exact (fun d => Id_step d OpLast) | exact Hs | apply H2; reflexivity].
    - apply tinv_index_err, H1.
  Qed.

  Lemma next_inv : keeps (ti_next c rd).
  Proof.
    intros t. unfold ti_next. generalize (ti_fuel t). intros fu. revert t.
    induction fu as [|fu IH]; intros t H.
    - apply tinv_with; [exact H | apply H | apply H].
    - rewrite ti_next_f_S. destruct (ti_has_err t); [exact H|].
      destruct (ti_data t); [|exact (advance_inv _ IH t H)].
      apply (enter_inv bi_next); [exact (fun d => Id_step d OpNext) | exact (advance_inv _ IH) | exact H].
  Qed.

  Lemma prev_inv : keeps (ti_prev c rd).
  Proof.
    intros t. unfold ti_prev. generalize (ti_fuel t). intros fu. revert t.
    induction fu as [|fu IH]; intros t H.
    - apply tinv_with; [exact H | apply H | apply H].
    - rewrite ti_prev_f_S. destruct (ti_has_err t); [exact H|].
      destruct (ti_data t); [|exact (retreat_inv _ IH t H)].
      apply (enter_inv bi_prev); [exact (fun d => Id_step d OpPrev) | exact (retreat_inv _ IH) | exact H].
  Qed.

  Lemma move_inv o cont : keeps cont -> keeps (ti_move c rd o cont).
  Proof.
    intros Hc t H. unfold ti_move. destruct (ti_has_err t); [exact H|].
    pose proof (index_move_inv t o H) as Hm.
    destruct (bi_step c (ti_index t) o) as [ok ix]. destruct Hm as [H1 H2]. destruct ok; cbn [negb].
    - apply Hc, H2. reflexivity.
    - apply tinv_clear, tinv_index_err, H1.
  Qed.

  Theorem ti_step_inv t o : tinv t -> tinv (snd (ti_step c rd t o)).
  Proof.
    intros H. rewrite ti_step_move. destruct o as [| |k| |].
    - apply move_inv; [exact next_inv | exact H].
    - apply move_inv; [|exact H]. apply enter_inv; [exact (fun d => Id_step d OpLast) | exact prev_inv].
    - apply move_inv; [|exact H]. apply enter_inv; [exact (fun d => Id_step d (OpSeek k)) | exact next_inv].
    - apply next_inv, H.
    - apply prev_inv, H.
  Qed.
End StepInv.

Section Damage.
  Variable tp : tparams.
  Variable crc : bytes -> N.
  Variable decompress : bytes -> option bytes.

  (* the bytes a read of handle h looks at, its stored and its recomputed checksum *)
  Definition raw_of (file : bytes) (h : bhandle) : bytes :=
    sliceN (bh_off h) (bh_off h + bh_len h + tp_trailerLen tp) file.
  Definition stored_crc (file : bytes) (h : bhandle) : N := le_decode (dropN (bh_len h + 1) (raw_of file h)).
  Definition computed_crc (file : bytes) (h : bhandle) : N := crc (takeN (bh_len h + 1) (raw_of file h)).

  (* "detects": the checksum notices the alteration (computable per case; a 32-bit CRC detects
     every single-byte alteration of data, type byte or the stored checksum itself) *)
  Definition detects (file : bytes) (h : bhandle) : Prop := stored_crc file h <> computed_crc file h.

  Lemma read_raw_block_detects file h : detects file h ->
    match read_raw_block tp crc decompress file h true with Ok _ => False | _ => True end.
  Proof.
    intros D. unfold read_raw_block.
    destruct (two63 <=? bh_len h + tp_trailerLen tp); [exact I|].
    fold (raw_of file h).
    destruct (lenN (raw_of file h) <? bh_len h + tp_trailerLen tp); [exact I|].
    unfold detects, stored_crc, computed_crc in D.
    destruct (N.eqb_spec (le_decode (dropN (bh_len h + 1) (raw_of file h))) (crc (takeN (bh_len h + 1) (raw_of file h)))) as [E|NE].
    - contradiction.
    - cbn [negb andb]. exact I.
  Qed.

  Theorem read_block_detects file h : detects file h ->
    match read_block_at tp crc decompress file h true with Ok _ => False | _ => True end.
  Proof.
    intros D. unfold read_block_at, bind_res.
    pose proof (read_raw_block_detects file h D) as H.
    destruct (read_raw_block tp crc decompress file h true); [contradiction | exact I | exact I].
  Qed.
End Damage.

(* rd' is rd except that some block fetches fail with Corrupt *)
Definition degraded (rd rd' : treader) : Prop :=
  tr_index rd' = tr_index rd /\ tr_filter rd' = tr_filter rd /\ tr_dataEnd rd' = tr_dataEnd rd /\
  forall h, tr_fetch rd' h = tr_fetch rd h \/ tr_fetch rd' h = Corrupt.

Section Degraded.
  Variable c : comparer.
  Variable rd rd' : treader.
  Hypothesis deg : degraded rd rd'.

  Theorem tfind_degraded key filtered :
    tfind c rd' key filtered = tfind c rd key filtered \/ tfind c rd' key filtered = FCorrupted.
  Proof.
    destruct deg as (Ei & Ef & _ & Hfetch). unfold tfind. rewrite Ei, Ef.
    destruct (tr_index rd) as [ib| |]; [|left; reflexivity|left; reflexivity].
    destruct (bi_seek c (new_block_iter c ib None true) key) as [ok index1].
    destruct (negb ok); [left; reflexivity|].
    destruct (decode_bh (bi_value index1)) as [dataBH n| |]; [|left; reflexivity|left; reflexivity].
    match goal with |- context [if ?r then FNotFound else _] => destruct r; [left; reflexivity|] end.
    destruct (Hfetch dataBH) as [E|E]; rewrite E; [|right; reflexivity].
    destruct (tr_fetch rd dataBH) as [blk| |]; [|left; reflexivity|left; reflexivity].
    destruct (bi_seek c (new_block_iter c blk None false) key) as [ok2 data1].
    destruct ok2; [left; reflexivity|].
    destruct (bi_err data1); [left; reflexivity|].
    destruct (bi_next index1) as [ok3 index2].
    destruct (negb ok3); [left; reflexivity|].
    destruct (decode_bh (bi_value index2)) as [dataBH2 n2| |]; [|left; reflexivity|left; reflexivity].
    destruct (Hfetch dataBH2) as [E2|E2]; rewrite E2; [|right; reflexivity].
    left; reflexivity.
  Qed.

  Theorem tget_degraded key :
    tget c rd' key = tget c rd key \/ tget c rd' key = FCorrupted.
  Proof.
    unfold tget. destruct (tfind_degraded key false) as [E|E]; rewrite E; [left | right]; reflexivity.
  Qed.

  Theorem toffset_degraded key : toffset_of c rd' key = toffset_of c rd key.
  Proof.
    destruct deg as (Ei & _ & Ed & _). unfold toffset_of. rewrite Ei, Ed. reflexivity.
  Qed.
End Degraded.
