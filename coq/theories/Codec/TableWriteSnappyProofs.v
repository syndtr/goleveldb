(* Codec/TableWriteSnappyProofs.v — the writer theorem of TableWriteProofs.v under the hypotheses of
   property C13 for either compression setting (suffix _z): the codec is any pair with
   decompress (compress x) = Some x whose encoder never returns the empty string, and the
   uncompressed blocks are bounded by the computable condition Codec/TableSizes.table_sizes_ok. *)
From GL Require Import Codec.TableProofs Codec.TableWriteProofs Codec.TableSizes.

Local Open Scope N_scope.

Theorem table_wf_of_write_z tp (tp_ok : tparams_ok tp) crc (crc_bound : forall b, crc b < 2 ^ 32)
    compress decompress (codec_ok : forall x, decompress (compress x) = Some x)
    (compress_ne : forall x, compress x <> []) fcontains c (c_ok : comparer_ok c)
    (empty_least : forall k, cmp c [] k <> Gt) blockSize ri (ri_pos : 1 <= ri) fgen snappy kvs file fname verify :
  sorted c kvs ->
  twrite tp crc compress c blockSize ri snappy fgen kvs = Some file ->
  lenN file < 2 ^ 32 ->
  table_sizes_ok tp crc compress c blockSize ri snappy fgen kvs = true ->
  exists blocks seps hs,
    table_wf c (open_table tp crc decompress fcontains c file fname verify) blocks seps hs /\
    tkvs blocks = kvs.
Proof.
  intros Hsorted Hw Hsize Hok.
  destruct (table_written tp tp_ok crc crc_bound compress decompress codec_ok fcontains c c_ok empty_least
              blockSize ri ri_pos fgen snappy (fun _ => compress_ne) kvs file fname verify Hsorted Hw Hsize (fun _ => Hok))
    as (bl & seps & hs & W & E & _).
  exists bl, seps, hs. split; assumption.
Qed.

(* the round trip, end to end, either compression setting *)
Theorem table_roundtrip_z tp crc compress decompress fcontains c blockSize ri fgen snappy kvs file fname verify strict :
  tparams_ok tp -> (forall b, crc b < 2 ^ 32) ->
  (forall x, decompress (compress x) = Some x) -> (forall x, compress x <> []) ->
  comparer_ok c -> (forall k, cmp c [] k <> Gt) -> 1 <= ri ->
  sorted c kvs ->
  twrite tp crc compress c blockSize ri snappy fgen kvs = Some file -> lenN file < 2 ^ 32 ->
  table_sizes_ok tp crc compress c blockSize ri snappy fgen kvs = true ->
  let rd := open_table tp crc decompress fcontains c file fname verify in
  (forall k v, In (k, v) kvs -> tget c rd k = FFound k v) /\
  (forall k, (forall v, ~ In (k, v) kvs) -> tget c rd k = FNotFound) /\
  (forall key, tfind c rd key false =
     match first_ge c key kvs 0 with
     | Some i => match nth_error kvs i with Some (k, v) => FFound k v | None => FOther end
     | None => FNotFound
     end) /\
  (exists t, new_titer c rd None strict = inr t /\
     forall ops, fst (ti_run c rd t ops) = c_run c kvs CSOI ops) /\
  (forall k1 k2, cmp c k1 k2 <> Gt ->
     exists o1 o2, toffset_of c rd k1 = Ok o1 /\ toffset_of c rd k2 = Ok o2 /\ o1 <= o2) /\
  (forall start limit,
     exists t, new_titer c rd (Some (start, limit)) strict = inr t /\
       forall ops, fst (ti_run c rd t ops) = c_run c (restrict c start limit kvs) CSOI ops).
Proof.
  intros Htp Hcrc Hcodec Hne Hc Hel Hri Hs Hw Hsz Hok rd.
  destruct (table_wf_of_write_z tp Htp crc Hcrc compress decompress Hcodec Hne fcontains c Hc Hel blockSize ri Hri fgen snappy kvs file fname verify Hs Hw Hsz Hok)
    as (blocks & seps & hs & Hwf & Ek).
  fold rd in Hwf. rewrite <- Ek. apply (wf_roundtrip c rd blocks seps hs strict Hc Hwf).
Qed.
