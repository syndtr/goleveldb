(* Codec/TableDamageIterProofs.v — the table iterator with the strict flag off, over a table some of
   whose data blocks cannot be read (their fetch reports Corrupt, e.g. a detected checksum mismatch):
   it skips exactly those blocks and yields the remaining original pairs in order — it refines
   the reference cursor over the pairs of the readable blocks, for every movement sequence.
   Instance of the indexed-iterator theorem of IndexedIterProofs.v (an unreadable block behaves as an
   empty virtual block when the strict flag is off).  The section keeps the flag a variable and asks
   for strict = false only where some block is unreadable. *)
From GL Require Import Codec.BlockEnc Codec.BlockProofs Codec.Table Codec.TableProofs Codec.IndexedIterProofs.
From Coq Require Import ZArith Lia.

Local Open Scope N_scope.

Section Damaged.
  Variable c : comparer.
  Hypothesis c_ok : comparer_ok c.
  Variable rd rd' : treader.
  Variable blocks : list (list (bytes * bytes)).
  Variable seps : list bytes.
  Variable hs : list bhandle.
  Hypothesis wf : table_wf c rd blocks seps hs.
  Variable bad : nat -> bool.              (* the data blocks that cannot be read *)
  Variable strict : bool.

  Local Notation m := (length blocks).
  Local Notation blk j := (nth j blocks []).
  Local Notation sepj j := (nth j seps []).
  Local Notation hj j := (nth j hs bh0).
  Local Notation ient := (ientries seps hs).

  (* rd' is rd with the bad blocks unreadable *)
  Hypothesis fetch' : forall j, (j < m)%nat ->
    tr_fetch rd' (hj j) = if bad j then Corrupt else tr_fetch rd (hj j).
  (* a strict iterator halts at an unreadable block (TableDamageStrictProofs.v) *)
  Hypothesis bad_lenient : forall j, (j < m)%nat -> bad j = true -> strict = false.

  (* the virtual blocks: an unreadable block counts as empty *)
  Definition vd (j : nat) : list (bytes * bytes) := if bad j then [] else blk j.
  Definition Vd : list (list (bytes * bytes)) := map vd (seq 0 m).

  Lemma Vd_nth j : (j < m)%nat -> nth j Vd [] = if bad j then [] else blk j.
  Proof.
    intros H. unfold Vd. rewrite (nth_indep _ [] (vd 0)) by (rewrite map_length, seq_length; exact H).
    rewrite map_nth, seq_nth by exact H. reflexivity.
  Qed.

  Lemma Vd_in j x : In x (nth j Vd []) -> (j < m)%nat /\ In x (blk j).
  Proof.
    intros H. destruct (Nat.lt_ge_cases j m) as [L|L].
    - split; [exact L|]. rewrite (Vd_nth j L) in H. destruct (bad j); [destruct H | exact H].
    - rewrite nth_overflow in H by (unfold Vd; rewrite map_length, seq_length; exact L). destruct H.
  Qed.

  Variable ib : block.
  Variable ioff : nat -> N.
  Variable iris : list nat.
  Hypothesis ilay : block_layout ient ib ioff iris.

  Local Notation RI := (rep ient ib ioff iris).

  Lemma Vd_len : length Vd = length ient.
  Proof. unfold Vd. rewrite map_length, seq_length, (ient_len c rd blocks seps hs wf). reflexivity. Qed.

  Lemma get_ok_d t i : RI (ti_index t) (CAt i) -> static None strict t ->
    (exists d0 R, index_get c rd' t = Some (DBlock d0) /\ refines_over c (nth i Vd []) R /\ R d0 CSOI) \/
    (index_get c rd' t = Some (DEmpty ErrCorrupt) /\ nth i Vd [] = [] /\ strict = false).
  Proof.
    intros R [Hsl _]. pose proof R as (Hi & Hs & Hd & Hk & Hv & _).
    rewrite (ient_len c rd blocks seps hs wf) in Hi.
    unfold index_get.
    assert (Hvalid : bi_valid (ti_index t) = true).
    { unfold bi_valid. rewrite (has_err_false _ _ Hs). destruct Hd as [-> | ->]; reflexivity. }
    rewrite Hvalid. cbn [negb].
    rewrite Hv, (ient_val c rd blocks seps hs wf i Hi).
    destruct (twf_handles _ _ _ _ _ wf i Hi) as [Ho1 Hl1]. rewrite (decode_encode_bh _ Ho1 Hl1).
    rewrite Hsl, (fetch' i Hi), (Vd_nth i Hi).
    destruct (bad i) eqn:Eb.
    - right. split; [reflexivity|]. split; [reflexivity | exact (bad_lenient i Hi Eb)].
    - left. destruct (twf_fetch _ _ _ _ _ wf i Hi) as (bj & Ef & (off & ris & lay)). rewrite Ef.
      eexists. exists (rep (blk i) bj off ris). split; [reflexivity|].
      split; [apply (unsliced_refines c c_ok); [exact lay | apply (sorted_block c c_ok rd blocks seps hs wf i Hi)] | apply rep_unsliced].
  Qed.

  Lemma route_at_d key i : c_seek c ient key = CAt i ->
    (forall i' x, (i' < i)%nat -> In x (nth i' Vd []) -> cmp c (fst x) key = Lt) /\
    (forall i' x, (i < i')%nat -> In x (nth i' Vd []) -> cmp c (fst x) key <> Lt).
  Proof.
    intros Hs. pose proof (index_seek_at c rd blocks seps hs wf key i Hs) as (Hi & Hge & Hlt).
    split.
    - intros i' x Hi' Hin. apply Vd_in in Hin as [Hb Hin].
      apply (before_block_lt c c_ok rd blocks seps hs wf i key x i' Hi' Hi Hin). apply Hlt. lia.
    - intros i' x Hi' Hin. apply Vd_in in Hin as [Hb Hin].
      apply (after_block_gt c c_ok rd blocks seps hs wf i key x i' Hi' Hb Hin Hge).
  Qed.

  Lemma route_eoi_d key : c_seek c ient key = CEOI -> forall i' x, In x (nth i' Vd []) -> cmp c (fst x) key = Lt.
  Proof.
    intros Hs i' x Hin. apply Vd_in in Hin as [Hb Hin].
    apply (index_seek_eoi c c_ok rd blocks seps hs wf key Hs x).
    apply (in_nth_concat blocks i' x Hb Hin).
  Qed.

  Lemma index_fuel_d ix p : RI ix p -> (length Vd <= length (b_data (bi_blk ix)))%nat.
  Proof.
    intros R. apply rep_slice_full in R. destruct R as (Eb & _). rewrite Eb, Vd_len.
    apply (len_le_data ient ib ioff iris ilay).
  Qed.

  Theorem damaged_run ops :
    fst (ti_run c rd' (mkTI (new_block_iter c ib None true) None None strict None) ops) = c_run c (concat Vd) CSOI ops.
  Proof.
    apply (trun_refines c rd' None strict ient RI (unsliced_refines c c_ok ient ib ioff iris ilay (ient_sorted c c_ok rd blocks seps hs wf)) Vd Vd_len get_ok_d route_at_d route_eoi_d index_fuel_d ops _ CSOI).
    split; [reflexivity|]. split; [split; reflexivity|]. split; [reflexivity | apply rep_unsliced].
  Qed.
End Damaged.

Theorem table_iter_skips_unreadable c rd rd' blocks seps hs (bad : nat -> bool) :
  comparer_ok c -> table_wf c rd blocks seps hs ->
  tr_index rd' = tr_index rd ->
  (forall j, (j < length blocks)%nat ->
     tr_fetch rd' (nth j hs bh0) = if bad j then Corrupt else tr_fetch rd (nth j hs bh0)) ->
  exists t, new_titer c rd' None false = inr t /\
    forall ops, fst (ti_run c rd' t ops)
                = c_run c (concat (map (fun j => if bad j then [] else nth j blocks []) (seq 0 (length blocks)))) CSOI ops.
Proof.
  intros Hc wf Hidx Hf. destruct (twf_index _ _ _ _ _ wf) as (ib & Eib & (ioff & iris & ilay)).
  unfold new_titer. rewrite Hidx, Eib. eexists. split; [reflexivity|].
  intros ops. apply (damaged_run c Hc rd rd' blocks seps hs wf bad false Hf (fun _ _ _ => eq_refl) ib ioff iris ilay ops).
Qed.
