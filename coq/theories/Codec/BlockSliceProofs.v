(* Codec/BlockSliceProofs.v — the SLICED block iterator (newBlockIter with a util.Range).
   Section Sliced: for any slice parameters satisfying [view_ok] (riStart/riLimit/offsetStart/
   offsetRealStart/offsetLimit describe the entries [a, zl) of the block, the restart range
   [rs, rl) reaches all of them by linear scan) every First/Last/Seek/Next/Prev sequence refines
   the reference cursor over exactly those entries ([run_refines_s]).
   Section NewIter: newBlockIter(b, slice, inclLimit) computes such parameters, and the entries
   are those with start <= key (< limit, or up to and including the first key >= limit when
   inclLimit) ([new_block_iter_sliced]).
   Section ViewRestrict: without inclLimit those entries are [restrict c start limit kvs];
   [block_iter_sliced_refines] combines the three for a written block, inclLimit = false only.
   Non-empty blocks only: on an EMPTY block a slice with a Start bound makes block.seek read the
   restart-count word as an entry offset and the iterator reports a spurious corruption error
   (no pair is returned); the model reproduces that, the theorems exclude it. *)
From GL Require Import Base.VarintProofs Base.OrderProofs Base.CursorProofs Codec.Block Codec.BlockEnc
  Codec.BlockLayoutProofs Codec.CursorFacts.
From GL Require Base.VarintProofs.
From Coq Require Import ZArith Lia.

Local Open Scope N_scope.

Section Sliced.
  Variable c : comparer.
  Hypothesis c_ok : comparer_ok c.
  Variable kvs : list (bytes * bytes).
  Variable b : block.
  Variable off : nat -> N.
  Variable ris : list nat.
  Hypothesis lay : block_layout kvs b off ris.
  Hypothesis srt : sorted c kvs.
  Hypothesis kvs_ne : (0 < length kvs)%nat.

  Local Notation len := (length kvs).
  Local Notation nr := (length ris).

  (* the slice: entries [a, zl), restarts [rs, rl).  offsetStart ([offS]) is the offset of restart
     point rs, which may lie before entry a: Next from SOI starts there and skips up to
     offsetRealStart = off a.  Right disjunct of [vo_start]: Seek(start) ran off the block, the
     slice is empty and offsetStart is the restartsOffset. *)
  Variables a zl rs rl : nat.

  Record view_ok : Prop := {
    vo_a : (a <= zl)%nat;
    vo_z : (zl <= len)%nat;
    vo_rs : (rs <= rl)%nat;
    vo_rl : (rl <= nr)%nat;
    vo_start : ((rs < nr)%nat /\ (nth rs ris 0 <= a)%nat) \/ (rs = nr /\ a = len);
    vo_limit : (rs < rl)%nat -> (nth (rl - 1) ris 0 <= zl)%nat;
    vo_nonempty : (a < zl)%nat -> (rs < rl)%nat
  }.
  Hypothesis vok : view_ok.

  Definition offS : N := if Nat.ltb rs nr then off (nth rs ris 0%nat) else b_roff b.

  Definition view : list (bytes * bytes) := firstn (zl - a) (skipn a kvs).

  Local Notation omono := (off_mono kvs b off ris lay).
  Local Notation omono_le := (off_mono_le kvs b off ris lay).
  Local Notation oinj := (off_inj kvs b off ris lay).
  Local Notation ole_inv := (off_le_inv kvs b off ris lay).

  Lemma off_len : off len = b_roff b.
  Proof. apply (lay_end _ _ _ _ lay). Qed.

  Lemma view_len : length view = (zl - a)%nat.
  Proof.
    unfold view. rewrite firstn_length, skipn_length. pose proof (vo_a vok). pose proof (vo_z vok). lia.
  Qed.

  Lemma view_nth i' : (i' < zl - a)%nat -> nth_error view i' = nth_error kvs (a + i').
  Proof.
    intros H. unfold view. rewrite nth_error_firstn_lt by exact H. apply nth_error_skipn.
  Qed.

  Lemma offS_lt : (rs < nr)%nat -> offS = off (nth rs ris 0%nat).
  Proof. intros H. unfold offS. rewrite (proj2 (Nat.ltb_lt _ _) H). reflexivity. Qed.

  Lemma offS_end : (nr <= rs)%nat -> offS = b_roff b.
  Proof. intros H. unfold offS. rewrite (proj2 (Nat.ltb_ge _ _) H). reflexivity. Qed.

  Lemma offS_le : offS <= off a.
  Proof.
    destruct (vo_start vok) as [[H1 H2]|[H1 H2]].
    - rewrite (offS_lt H1).
      apply omono_le; [exact H2 | pose proof (vo_a vok); pose proof (vo_z vok); lia].
    - rewrite offS_end by lia.
      rewrite H2, off_len. lia.
  Qed.

  Definition slice_at (it : biter) : Prop :=
    bi_blk it = b /\ bi_err it = None /\ bi_riStart it = N.of_nat rs /\ bi_riLimit it = N.of_nat rl /\
    bi_offStart it = offS /\ bi_offRealStart it = off a /\ bi_offLimit it = off zl.

  (* the restart index the iterator carries is inside the restart range and not after entry i *)
  Definition ri_in (it : biter) (i : nat) : Prop :=
    exists r, (rs <= r)%nat /\ (r < rl)%nat /\ bi_ri it = N.of_nat r /\ (nth r ris 0 <= i)%nat.

  Definition dmoving (it : biter) : Prop := bi_dir it = DForward \/ bi_dir it = DBackward.

  (* positioned so that the next read decodes entry j *)
  Definition pre_s (it : biter) (j : nat) : Prop :=
    slice_at it /\ bi_offset it = off j /\ (j <= zl)%nat /\
    ((a < zl)%nat -> (j < zl)%nat -> ri_in it j) /\
    ((j < len)%nat -> In j ris \/ ((0 < j)%nat /\ bi_key it = key_at kvs (j - 1))).

  Definition rep_s (it : biter) (p : cpos) : Prop :=
    match p with
    | CSOI => slice_at it /\ bi_dir it = DSOI
    | CEOI => slice_at it /\ bi_dir it = DEOI
    | CAt i' => (a + i' < zl)%nat /\ slice_at it /\ dmoving it /\
                bi_key it = key_at kvs (a + i') /\ bi_value it = val_at kvs (a + i') /\
                bi_offset it = off (S (a + i')) /\ bi_prevOffset it = off (a + i') /\ ri_in it (a + i')
    end.

  Lemma has_err_s it : slice_at it -> bi_has_err it = false.
  Proof. intros (_ & E & _). unfold bi_has_err. rewrite E. reflexivity. Qed.

  Lemma rep_s_slice it p : rep_s it p -> slice_at it.
  Proof. destruct p; intros R; apply R. Qed.

  Lemma rep_s_pre it i' : rep_s it (CAt i') -> pre_s it (S (a + i')) /\ dmoving it.
  Proof.
    intros (Hi & Hs & Hd & Hk & Hv & Ho & Hp & (r & Hr0 & Hr1 & Hr2 & Hr3)).
    split; [|exact Hd]. split; [exact Hs|]. split; [exact Ho|]. split; [lia|]. split.
    - intros _ _. exists r. split; [exact Hr0|]. split; [exact Hr1|]. split; [exact Hr2|]. lia.
    - intros _. right. split; [lia|]. replace (S (a + i') - 1)%nat with (a + i')%nat by lia. exact Hk.
  Qed.

  Lemma skip_done fuel it : bi_offRealStart it <= bi_offset it -> bi_skip fuel it = inl it.
  Proof.
    intros H. destruct fuel; cbn [bi_skip]; replace (bi_offset it <? bi_offRealStart it) with false by lia; reflexivity.
  Qed.

  (* the skip loop of Next: from a position before the slice start up to the slice start *)
  Lemma skip_spec : forall fuel it j,
    slice_at it -> bi_offset it = off j -> (j <= a)%nat -> (a - j < fuel)%nat ->
    (In j ris \/ ((0 < j)%nat /\ bi_key it = key_at kvs (j - 1))) ->
    exists it', bi_skip fuel it = inl it' /\ slice_at it' /\ bi_offset it' = off a /\
      bi_dir it' = bi_dir it /\ bi_ri it' = bi_ri it /\ bi_prevOffset it' = bi_prevOffset it /\
      ((a < len)%nat -> In a ris \/ ((0 < a)%nat /\ bi_key it' = key_at kvs (a - 1))) /\
      (j = a -> it' = it).
  Proof.
    induction fuel as [|fu IH]; intros it j Hs Ho Hj Hf Hk; [lia|].
    pose proof Hs as (Eb & Ee & E1 & E2 & E3 & E4 & E5).
    pose proof (vo_a vok) as Ha. pose proof (vo_z vok) as Hz.
    destruct (Nat.eq_dec j a) as [->|Hne].
    - exists it. rewrite skip_done by (rewrite E4, Ho; lia).
      repeat split; try assumption; try reflexivity. intros _. exact Hk.
    - cbn [bi_skip]. rewrite E4, Ho.
      pose proof (omono j a ltac:(lia) ltac:(lia)) as Hm.
      replace (off j <? off a) with true by lia.
      rewrite Eb, (lay_read _ _ _ _ lay j (bi_key it) ltac:(lia) Hk).
      pose proof (lay_step _ _ _ _ lay j ltac:(lia)) as Hst.
      set (it1 := bi_with_pos it (key_at kvs j) (val_at kvs j) (off j + (off (S j) - off j)) (bi_prevOffset it) (bi_ri it) (bi_dir it)).
      destruct (IH it1 (S j)) as (it' & E & Hs' & Ho' & Hd' & Hr' & Hp' & Hk' & _).
      + exact Hs.
      + unfold it1. cbn [bi_with_pos bi_offset]. lia.
      + lia.
      + lia.
      + right. split; [lia|]. replace (S j - 1)%nat with j by lia. reflexivity.
      + exists it'. split; [exact E|]. split; [exact Hs'|]. split; [exact Ho'|].
        split; [exact Hd'|]. split; [exact Hr'|]. split; [exact Hp'|]. split; [exact Hk'|]. intros; lia.
  Qed.

  Lemma next_body_ge it j : pre_s it j -> (a <= j)%nat ->
    exists ok it', next_body it = (ok, it') /\
      rep_s it' (if Nat.ltb j zl then CAt (j - a) else CEOI) /\ ok = Nat.ltb j zl.
  Proof.
    intros (Hs & Ho & Hj & Hri & Hk) Haj.
    pose proof Hs as (Eb & Ee & E1 & E2 & E3 & E4 & E5).
    pose proof (vo_z vok) as Hz.
    unfold next_body. rewrite skip_done by (rewrite E4, Ho; apply omono_le; lia).
    rewrite E5, Ho.
    destruct (Nat.ltb_spec j zl) as [L|L].
    - pose proof (omono j zl L Hz) as Hm. replace (off zl <=? off j) with false by lia.
      rewrite Eb, (lay_read _ _ _ _ lay j (bi_key it) ltac:(lia) (Hk ltac:(lia))).
      pose proof (lay_step _ _ _ _ lay j ltac:(lia)) as Hst.
      eexists. eexists. split; [reflexivity|]. split; [|reflexivity].
      assert (Ej : (a + (j - a))%nat = j) by lia. unfold rep_s. rewrite !Ej.
      split; [exact L|]. split; [exact Hs|]. split; [left; reflexivity|].
      cbn [bi_with_pos bi_key bi_value bi_offset bi_prevOffset bi_ri].
      split; [reflexivity|]. split; [reflexivity|]. split; [lia|]. split; [reflexivity|]. exact (Hri ltac:(lia) L).
    - assert (j = zl) by lia. subst j. rewrite N.leb_refl, N.eqb_refl.
      eexists. eexists. split; [reflexivity|]. split; [|reflexivity]. split; [exact Hs | reflexivity].
  Qed.

  (* reading from a position at or before the slice start behaves as from the slice start *)
  Lemma next_body_le it j : pre_s it j -> (j <= a)%nat ->
    exists ok it', next_body it = (ok, it') /\
      rep_s it' (if Nat.ltb a zl then CAt 0 else CEOI) /\ ok = Nat.ltb a zl.
  Proof.
    intros (Hs & Ho & Hj & Hri & Hk) Hja.
    pose proof (vo_a vok) as Ha. pose proof (vo_z vok) as Hz.
    destruct (Nat.eq_dec j a) as [->|Hne].
    - destruct (next_body_ge it a) as (ok & it' & E & R & Eok); [split; [exact Hs|]; split; [exact Ho|]; split; [exact Hj|]; split; [exact Hri | exact Hk] | lia|].
      rewrite Nat.sub_diag in R. eauto.
    - assert (Hk' : In j ris \/ (0 < j)%nat /\ bi_key it = key_at kvs (j - 1)) by (apply Hk; lia).
      destruct (skip_spec (bi_fuel it) it j Hs Ho Hja) as (it1 & E1 & Hs1 & Ho1 & Hd1 & Hr1 & Hp1 & Hk1 & _).
      { unfold bi_fuel. pose proof Hs as (Eb & _). rewrite Eb. pose proof (len_le_data kvs b off ris lay). lia. }
      { exact Hk'. }
      assert (P1 : pre_s it1 a).
      { split; [exact Hs1|]. split; [exact Ho1|]. split; [exact Ha|]. split; [|exact Hk1].
        intros L _. destruct (Hri L ltac:(lia)) as (r & H0 & H1 & H2 & H3). exists r. rewrite Hr1. split; [exact H0|]. split; [exact H1|]. split; [exact H2|]. lia. }
      destruct (next_body_ge it1 a P1 ltac:(lia)) as (ok & it' & E & R & Eok).
      rewrite Nat.sub_diag in R. exists ok, it'. split; [|auto].
      (* next_body it runs the same skip and continues from it1 *)
      unfold next_body in *. rewrite E1.
      assert (Ef : bi_fuel it1 = bi_fuel it).
      { unfold bi_fuel. pose proof Hs as (Eb & _). pose proof Hs1 as (Eb1 & _). rewrite Eb, Eb1. reflexivity. }
      rewrite Ef in E. rewrite skip_done in E; [exact E|].
      pose proof Hs1 as (_ & _ & _ & _ & _ & E4 & _). rewrite E4, Ho1. lia.
  Qed.

  Lemma next_moving_s it j : pre_s it j -> dmoving it -> (a <= j)%nat ->
    exists ok it', bi_next it = (ok, it') /\
      rep_s it' (if Nat.ltb j zl then CAt (j - a) else CEOI) /\ ok = Nat.ltb j zl.
  Proof.
    intros P Hd Haj. rewrite bi_next_unfold. rewrite (has_err_s it) by apply P.
    replace (bdir_eqb (bi_dir it) DEOI) with false by (destruct Hd as [-> | ->]; reflexivity).
    replace (bdir_eqb (bi_dir it) DSOI) with false by (destruct Hd as [-> | ->]; reflexivity).
    cbn [orb]. apply next_body_ge; assumption.
  Qed.

  Lemma c_first_view : c_first view = if Nat.ltb a zl then CAt 0 else CEOI.
  Proof.
    unfold c_first. pose proof view_len as Hl. destruct (Nat.ltb_spec a zl) as [L|L].
    - destruct view; [cbn in Hl; lia | reflexivity].
    - destruct view; [reflexivity | cbn in Hl; lia].
  Qed.

  Lemma next_step_s it p : rep_s it p ->
    exists ok it', bi_next it = (ok, it') /\ rep_s it' (c_next view p) /\
                   ok = match c_next view p with CAt _ => true | _ => false end.
  Proof.
    intros R. pose proof (vo_a vok) as Ha. pose proof (vo_z vok) as Hz.
    destruct p as [|i'|].
    - destruct R as [Hs Hd]. rewrite bi_next_unfold, (has_err_s it Hs), Hd. cbn [bdir_eqb orb].
      pose proof Hs as (Eb & Ee & E1 & E2 & E3 & E4 & E5).
      set (it1 := bi_with_pos it (bi_key it) (bi_value it) (bi_offStart it) (bi_prevOffset it) (bi_riStart it) DSOI).
      cbn [c_next]. rewrite c_first_view.
      destruct (vo_start vok) as [[H1 H2]|[H1 H2]].
      + assert (P : pre_s it1 (nth rs ris 0%nat)).
        { split; [exact Hs|]. split.
          - unfold it1. cbn [bi_with_pos bi_offset]. rewrite E3. exact (offS_lt H1).
          - split; [lia|]. split.
            + intros L _. exists rs. split; [lia|]. split; [apply (vo_nonempty vok); lia|]. split; [exact E1 | lia].
            + intros _. left. apply nth_In. exact H1. }
        destruct (next_body_le it1 _ P H2) as (ok & it' & E & R' & Eok).
        exists ok, it'. split; [exact E|]. destruct (Nat.ltb a zl); auto.
      + (* the slice starts at the end of the block *)
        assert (Ez : zl = len) by lia.
        assert (P : pre_s it1 len).
        { split; [exact Hs|]. split.
          - unfold it1. cbn [bi_with_pos bi_offset]. rewrite E3, off_len. apply offS_end. lia.
          - split; [lia|]. split; [intros; lia | intros; lia]. }
        destruct (next_body_ge it1 len P ltac:(lia)) as (ok & it' & E & R' & Eok).
        exists ok, it'. split; [exact E|].
        replace (Nat.ltb len zl) with false in * by (symmetry; apply Nat.ltb_ge; lia).
        replace (Nat.ltb a zl) with false by (symmetry; apply Nat.ltb_ge; lia). auto.
    - destruct (rep_s_pre it i' R) as [P Hd].
      destruct (next_moving_s it (S (a + i')) P Hd ltac:(lia)) as (ok & it' & E & R' & Eok).
      exists ok, it'. split; [exact E|]. cbn [c_next]. rewrite view_len.
      replace (S (a + i') - a)%nat with (S i') in R' by lia.
      destruct (Nat.ltb_spec (S (a + i')) zl) as [L|L].
      + replace (Nat.ltb (S i') (zl - a)) with true by (symmetry; apply Nat.ltb_lt; lia). auto.
      + replace (Nat.ltb (S i') (zl - a)) with false by (symmetry; apply Nat.ltb_ge; lia). auto.
    - destruct R as [Hs Hd]. exists false, it. rewrite bi_next_unfold, Hd. cbn [bdir_eqb orb c_next].
      split; [reflexivity|]. split; [split; assumption | reflexivity].
  Qed.

  Lemma view_kv i' : (a + i' < zl)%nat -> nth_error view i' = Some (key_at kvs (a + i'), val_at kvs (a + i')).
  Proof.
    intros H. rewrite view_nth by lia. apply nth_kv. pose proof (vo_z vok). lia.
  Qed.

  Lemma c_seek_view_at key i' : (a + i' < zl)%nat ->
    cmp c (key_at kvs (a + i')) key <> Lt ->
    (forall j', (a <= j')%nat -> (j' < a + i')%nat -> cmp c (key_at kvs j') key = Lt) ->
    c_seek c view key = CAt i'.
  Proof.
    intros Hi Hge Hlt. unfold c_seek.
    rewrite (first_ge_some_intro c view key 0 i' _ _ (view_kv i' Hi) Hge); [reflexivity|].
    intros j' k' v' Hj' Hn. rewrite view_kv in Hn by lia. injection Hn as <- _. apply Hlt; lia.
  Qed.

  Lemma c_seek_view_none key :
    (forall j', (a <= j')%nat -> (j' < zl)%nat -> cmp c (key_at kvs j') key = Lt) ->
    c_seek c view key = CEOI.
  Proof.
    intros Hlt. unfold c_seek. rewrite (first_ge_none_intro c view key 0); [reflexivity|].
    intros j' k' v' Hn.
    assert (Hj : (j' < zl - a)%nat) by (rewrite <- view_len; apply nth_error_Some; rewrite Hn; discriminate).
    rewrite view_kv in Hn by lia. injection Hn as <- _. apply Hlt; lia.
  Qed.

  Lemma seek_loop_s key : forall fuel it j,
    pre_s it j -> dmoving it -> (a <= j)%nat -> (zl - j < fuel)%nat ->
    (forall j', (a <= j')%nat -> (j' < j)%nat -> cmp c (key_at kvs j') key = Lt) ->
    exists ok it', bi_seek_loop fuel c key it = (ok, it') /\ rep_s it' (c_seek c view key) /\
                   ok = match c_seek c view key with CAt _ => true | _ => false end.
  Proof.
    induction fuel as [|fu IH]; intros it j P Hd Haj Hf Hlt; [lia|].
    cbn [bi_seek_loop].
    destruct (next_moving_s it j P Hd Haj) as (ok & it' & E & R' & Eok). rewrite E.
    destruct (Nat.ltb_spec j zl) as [L|L]; subst ok.
    - pose proof R' as (_ & _ & _ & Ek & _). rewrite Ek. replace (a + (j - a))%nat with j in * by lia.
      assert (Hdone : cmp c (key_at kvs j) key <> Lt -> c_seek c view key = CAt (j - a)).
      { intros Hge. apply c_seek_view_at; [lia | replace (a + (j - a))%nat with j by lia; exact Hge |].
        intros j' H1 H2. apply Hlt; lia. }
      destruct (cmp c (key_at kvs j) key) eqn:Ec.
      + exists true, it'. rewrite Hdone by congruence. auto.
      + destruct (rep_s_pre it' (j - a) R') as [P' Hd'].
        replace (S (a + (j - a))) with (S j) in P' by lia.
        apply (IH it' (S j) P' Hd'); [lia | lia |].
        intros j' H1 H2. destruct (Nat.eq_dec j' j) as [->|]; [exact Ec | apply Hlt; lia].
      + exists true, it'. rewrite Hdone by congruence. auto.
    - exists false, it'. rewrite c_seek_view_none; [auto|].
      intros j' H1 H2. apply Hlt; try assumption. destruct P as (_ & _ & Hj & _). lia.
  Qed.

  (* from a position at or before the slice start *)
  Lemma seek_loop_le key fuel it j :
    pre_s it j -> dmoving it -> (j <= a)%nat -> (S (zl - a) < fuel)%nat ->
    exists ok it', bi_seek_loop fuel c key it = (ok, it') /\ rep_s it' (c_seek c view key) /\
                   ok = match c_seek c view key with CAt _ => true | _ => false end.
  Proof.
    intros P Hd Hja Hf. destruct fuel as [|fu]; [lia|]. cbn [bi_seek_loop].
    rewrite bi_next_unfold. rewrite (has_err_s it) by apply P.
    replace (bdir_eqb (bi_dir it) DEOI) with false by (destruct Hd as [-> | ->]; reflexivity).
    replace (bdir_eqb (bi_dir it) DSOI) with false by (destruct Hd as [-> | ->]; reflexivity).
    cbn [orb].
    destruct (next_body_le it j P Hja) as (ok & it' & E & R' & Eok). rewrite E.
    destruct (Nat.ltb_spec a zl) as [L|L]; subst ok.
    - pose proof R' as (_ & _ & _ & Ek & _). rewrite Ek. rewrite Nat.add_0_r in *.
      assert (Hdone : cmp c (key_at kvs a) key <> Lt -> c_seek c view key = CAt 0).
      { intros Hge. apply c_seek_view_at; [lia | rewrite Nat.add_0_r; exact Hge | intros; lia]. }
      destruct (cmp c (key_at kvs a) key) eqn:Ec.
      + exists true, it'. rewrite Hdone by congruence. auto.
      + destruct (rep_s_pre it' 0 R') as [P' Hd']. rewrite Nat.add_0_r in P'.
        apply (seek_loop_s key fu it' (S a) P' Hd'); [lia | lia |].
        intros j' H1 H2. assert (j' = a) by lia. subst j'. exact Ec.
      + exists true, it'. rewrite Hdone by congruence. auto.
    - exists false, it'. rewrite c_seek_view_none; [auto|]. intros; lia.
  Qed.

  Definition rk_gt_s (key : bytes) (x : N) : bool :=
    match restart_key b x with Some k => is_gt (cmp c k key) | None => false end.

  (* restart keys increase along the restart array *)
  Lemma rk_gt_mono key r1 r2 : (r1 <= r2)%nat -> (r2 < nr)%nat ->
    rk_gt_s key (N.of_nat r1) = true -> rk_gt_s key (N.of_nat r2) = true.
  Proof.
    intros H12 H2 P1. unfold rk_gt_s in *.
    rewrite (restart_key_at kvs b off ris lay r1 kvs_ne) in P1 by lia.
    rewrite (restart_key_at kvs b off ris lay r2 kvs_ne H2).
    destruct (Nat.eq_dec r1 r2) as [->|Hne]; [exact P1|].
    assert (L : cmp c (key_at kvs (nth r1 ris 0%nat)) (key_at kvs (nth r2 ris 0%nat)) = Lt).
    { apply (keys_lt c c_ok kvs srt); [apply (lay_ris_incr _ _ _ _ lay); lia | apply (ris_lt kvs b off ris lay); lia]. }
    destruct (cmp c (key_at kvs (nth r1 ris 0%nat)) key) eqn:G; try discriminate.
    apply (cmp_gt_lt c c_ok) in G.
    assert (H : cmp c key (key_at kvs (nth r2 ris 0%nat)) = Lt) by (eapply (cmp_trans c c_ok); eauto).
    apply (cmp_lt_gt c c_ok) in H. rewrite H. reflexivity.
  Qed.

  (* where block.seek starts the scan *)
  Lemma block_seek_s key :
    exists r j0 o,
      block_seek c b (N.of_nat rs) (N.of_nat rl) key = Some (N.of_nat r, o) /\
      N.max offS o = off j0 /\ (j0 <= zl)%nat /\
      ((j0 < len)%nat -> In j0 ris) /\
      ((a < zl)%nat -> (rs <= r)%nat /\ (r < rl)%nat /\ (nth r ris 0 <= j0)%nat) /\
      (forall j', (a <= j')%nat -> (j' < j0)%nat -> cmp c (key_at kvs j') key = Lt).
  Proof.
    pose proof (vo_a vok) as Ha. pose proof (vo_z vok) as Hz. pose proof (vo_rs vok) as Hrs. pose proof (vo_rl vok) as Hrl.
    unfold block_seek.
    destruct (sort_search_mono (N.of_nat rl - N.of_nat rs)
                (fun i => option_map (fun k => is_gt (cmp c k key)) (restart_key b (N.of_nat rs + i)))
                (fun i => rk_gt_s key (N.of_nat rs + i))) as (s & Es & Hs & Hlo & Hhi).
    - intros h Hh. unfold rk_gt_s.
      destruct (lay_rkey _ _ _ _ lay (rs + N.to_nat h)) as (k & E & _); [lia|].
      replace (N.of_nat (rs + N.to_nat h)) with (N.of_nat rs + h) in E by lia. rewrite E. reflexivity.
    - intros h1 h2 H12 H2 P1.
      replace (N.of_nat rs + h1) with (N.of_nat (rs + N.to_nat h1)) in P1 by lia.
      replace (N.of_nat rs + h2) with (N.of_nat (rs + N.to_nat h2)) by lia.
      apply (rk_gt_mono key (rs + N.to_nat h1) (rs + N.to_nat h2)); [lia | lia | exact P1].
    - rewrite Es.
      set (r := if s =? 0 then rs else (N.to_nat s + rs - 1)%nat).
      assert (Ei : (if s =? 0 then N.of_nat rs else s + N.of_nat rs - 1) = N.of_nat r).
      { unfold r. destruct (N.eqb_spec s 0); [reflexivity | lia]. }
      rewrite Ei.
      destruct (Nat.eq_dec rs nr) as [Enr|Nnr].
      + (* the slice starts past the last restart point: the restart count is read *)
        assert (s = 0) by lia. subst s. unfold r. cbn [N.eqb].
        destruct (vo_start vok) as [[H1 _]|[_ Hal]]; [lia|].
        rewrite Enr. fold (lenN ris). rewrite (lay_count _ _ _ _ lay). cbn [option_map].
        exists nr, len, (lenN ris). split; [reflexivity|].
        assert (Hcnt : lenN ris <= b_roff b).
        { pose proof (off_ge kvs b off ris lay len ltac:(lia)) as H2. rewrite off_len in H2.
          pose proof (ris_len_le kvs b off ris lay kvs_ne). unfold lenN. lia. }
        split; [rewrite offS_end, off_len by lia; lia|].
        split; [lia|]. split; [intros; lia|]. split; [intros; lia|]. intros; lia.
      + assert (Hrn : (r < nr)%nat).
        { unfold r. destruct (N.eqb_spec s 0); lia. }
        rewrite (lay_roff _ _ _ _ lay r Hrn). cbn [option_map].
        exists r, (nth r ris 0%nat), (off (nth r ris 0%nat)). split; [reflexivity|].
        assert (Hrr : (rs <= r)%nat) by (unfold r; destruct (N.eqb_spec s 0); lia).
        assert (Hmx : N.max offS (off (nth r ris 0%nat)) = off (nth r ris 0%nat)).
        { rewrite offS_lt by lia.
          apply N.max_r. apply omono_le; [apply (ris_mono kvs b off ris lay); lia | pose proof (ris_lt kvs b off ris lay r kvs_ne Hrn); lia]. }
        split; [exact Hmx|].
        destruct (vo_start vok) as [[_ Hsa]|[Hx _]]; [|lia].
        assert (Hj0 : (nth r ris 0 <= zl)%nat).
        { destruct (Nat.eq_dec rs rl) as [Erl|Nrl].
          - assert (s = 0) by lia. subst s. unfold r. cbn [N.eqb]. lia.
          - pose proof (vo_limit vok ltac:(lia)) as Hl.
            assert (r <= rl - 1)%nat by (unfold r; destruct (N.eqb_spec s 0); lia).
            pose proof (ris_mono kvs b off ris lay r (rl - 1) ltac:(lia) ltac:(lia)). lia. }
        split; [exact Hj0|]. split; [intros _; apply nth_In; exact Hrn|].
        split.
        { intros Hne. pose proof (vo_nonempty vok Hne). split; [exact Hrr|]. split; [unfold r; destruct (N.eqb_spec s 0); lia | lia]. }
        intros j' H1 H2.
        destruct (N.eqb_spec s 0) as [Z|NZ].
        * unfold r in H2. lia.
        * assert (Pf : rk_gt_s key (N.of_nat rs + (s - 1)) = false) by (apply Hlo; lia).
          unfold rk_gt_s in Pf.
          replace (N.of_nat rs + (s - 1)) with (N.of_nat r) in Pf by (unfold r; lia).
          rewrite (restart_key_at kvs b off ris lay r kvs_ne Hrn) in Pf.
          pose proof (keys_lt c c_ok kvs srt j' (nth r ris 0%nat) H2 (ris_lt kvs b off ris lay r kvs_ne Hrn)) as L.
          destruct (cmp c (key_at kvs (nth r ris 0%nat)) key) eqn:G; try discriminate.
          -- apply (cmp_eq c c_ok) in G. rewrite <- G. exact L.
          -- eapply (cmp_trans c c_ok); eauto.
  Qed.

  Lemma seek_from_slice it key : slice_at it ->
    exists ok it', bi_seek c it key = (ok, it') /\ rep_s it' (c_seek c view key) /\
                   ok = match c_seek c view key with CAt _ => true | _ => false end.
  Proof.
    intros Hs.
    pose proof Hs as (Eb & Ee & E1 & E2 & E3 & E4 & E5).
    pose proof (vo_a vok) as Ha. pose proof (vo_z vok) as Hz.
    unfold bi_seek. rewrite (has_err_s it Hs), Eb, E1, E2.
    destruct (block_seek_s key) as (r & j0 & o & Eseek & Emax & Hj0 & Hin & Hr & Hlt). rewrite Eseek.
    rewrite E3, Emax.
    set (d := if bdir_eqb (bi_dir it) DSOI || bdir_eqb (bi_dir it) DEOI then DForward else bi_dir it).
    set (it1 := bi_with_pos it (bi_key it) (bi_value it) (off j0) (bi_prevOffset it) (N.of_nat r) d).
    assert (P : pre_s it1 j0).
    { split; [exact Hs|]. split; [reflexivity|]. split; [exact Hj0|]. split.
      - intros L _. destruct (Hr L) as (H0 & H1 & H2). exists r. split; [exact H0|]. split; [exact H1|]. split; [reflexivity | exact H2].
      - intros L. left. apply Hin. exact L. }
    assert (Hd : dmoving it1).
    { unfold dmoving, it1. cbn [bi_with_pos bi_dir]. unfold d. destruct (bi_dir it); cbn; auto. }
    replace (bi_fuel it) with (bi_fuel it1) by reflexivity.
    assert (Hfuel : (S (zl - a) < bi_fuel it1)%nat).
    { unfold bi_fuel, it1. cbn [bi_with_pos bi_blk]. rewrite Eb. pose proof (len_le_data kvs b off ris lay).
      (* one more than the number of entries *)
      pose proof (off_ge kvs b off ris lay len ltac:(lia)) as Hg. rewrite off_len in Hg.
      pose proof (lay_data _ _ _ _ lay) as Hdt. unfold lenN in Hdt. lia. }
    destruct (Nat.le_gt_cases j0 a) as [L|L].
    - apply (seek_loop_le key (bi_fuel it1) it1 j0 P Hd L Hfuel).
    - apply (seek_loop_s key (bi_fuel it1) it1 j0 P Hd ltac:(lia)); [lia|]. exact Hlt.
  Qed.

  Lemma seek_step_s it p key : rep_s it p ->
    exists ok it', bi_seek c it key = (ok, it') /\ rep_s it' (c_seek c view key) /\
                   ok = match c_seek c view key with CAt _ => true | _ => false end.
  Proof. intros R. apply seek_from_slice. apply (rep_s_slice it p R). Qed.

  Lemma prev_scan_s i : (a < i)%nat -> (i <= len)%nat -> forall fuel j key value,
    (j < i)%nat -> (i - j <= fuel)%nat ->
    (In j ris \/ ((0 < j)%nat /\ key = key_at kvs (j - 1))) ->
    prev_scan fuel b (off a) (off i) (off j) key value
    = ScOk (key_at kvs (i - 1)) (val_at kvs (i - 1)) (off (i - 1)) (off i).
  Proof.
    intros Hai Hi. induction fuel as [|fu IH]; intros j key value Hj Hf Hk; [lia|].
    cbn [prev_scan]. rewrite (lay_read _ _ _ _ lay j key ltac:(lia) Hk).
    pose proof (lay_step _ _ _ _ lay j ltac:(lia)) as Hst.
    replace (off j + (off (S j) - off j)) with (off (S j)) by lia.
    destruct (Nat.eq_dec (S j) i) as [E|NE].
    - subst i. rewrite N.leb_refl, N.eqb_refl. replace (S j - 1)%nat with j by lia.
      pose proof (omono_le a j ltac:(lia) ltac:(lia)) as Hm.
      replace (off a <=? off j) with true by lia. reflexivity.
    - pose proof (omono (S j) i ltac:(lia) Hi) as Hm.
      replace (off i <=? off (S j)) with false by lia.
      apply IH; [lia | lia |]. right. split; [lia|]. replace (S j - 1)%nat with j by lia. reflexivity.
  Qed.

  Lemma restart_index_s r0 i : (r0 < rl)%nat -> (nth r0 ris 0 <= i)%nat -> (i < len)%nat ->
    exists r, restart_index b (N.of_nat r0) (N.of_nat rl) (off i) = Some (N.of_nat r) /\
              (r0 <= r)%nat /\ (r < rl)%nat /\ (nth r ris 0 <= i)%nat.
  Proof.
    intros Hr0 H0 Hi. pose proof (vo_rl vok) as Hrl. unfold restart_index.
    destruct (sort_search_mono (N.of_nat rl - N.of_nat r0)
                (fun x => option_map (fun o => off i <? o) (restart_offset b (N.of_nat r0 + x)))
                (fun x => off i <? off (nth (r0 + N.to_nat x) ris 0%nat))) as (s & Es & Hs & Hlo & Hhi).
    - intros h Hh. replace (N.of_nat r0 + h) with (N.of_nat (r0 + N.to_nat h)) by lia.
      rewrite (lay_roff _ _ _ _ lay) by lia. reflexivity.
    - intros h1 h2 H12 H2 P1.
      assert (Hr2 : (r0 + N.to_nat h2 < nr)%nat) by lia.
      pose proof (ris_mono kvs b off ris lay (r0 + N.to_nat h1) (r0 + N.to_nat h2) ltac:(lia) Hr2) as Hm.
      pose proof (ris_lt kvs b off ris lay (r0 + N.to_nat h2) kvs_ne Hr2) as Hl2.
      pose proof (omono_le _ _ Hm ltac:(lia)). lia.
    - rewrite Es.
      assert (S0 : s <> 0).
      { intros ->. assert (Hp : (off i <? off (nth (r0 + N.to_nat 0) ris 0%nat)) = true) by (apply Hhi; lia).
        replace (r0 + N.to_nat 0)%nat with r0 in Hp by lia.
        pose proof (omono_le _ _ H0 ltac:(lia)). lia. }
      replace (s + N.of_nat r0 =? 0) with false by lia.
      set (r := (r0 + N.to_nat (s - 1))%nat).
      exists r. split; [f_equal; unfold r; lia|].
      assert (Hr : (r < rl)%nat) by (unfold r; lia).
      split; [unfold r; lia|]. split; [exact Hr|].
      assert (Hp : (off i <? off (nth (r0 + N.to_nat (s - 1)) ris 0%nat)) = false) by (apply Hlo; lia).
      fold r in Hp. apply ole_inv; [pose proof (ris_lt kvs b off ris lay r kvs_ne ltac:(lia)); lia | lia | lia].
  Qed.

  Lemma prev_finish_s it i ri0 : (a < i)%nat -> (i <= zl)%nat -> slice_at it ->
    (rs <= ri0)%nat -> (ri0 < rl)%nat -> (nth ri0 ris 0 <= i)%nat ->
    (nth ri0 ris 0%nat = i -> (rs < ri0)%nat) ->
    exists it',
      match restart_offset (bi_blk it) (N.of_nat ri0) with
      | None => (false, bi_serr it ErrPanic)
      | Some off0 =>
          let adj :=
            if off0 =? off i then
              (if N.of_nat ri0 =? 0 then inl tt
               else inr (option_map (fun o => (N.of_nat ri0 - 1, o)) (restart_offset (bi_blk it) (N.of_nat ri0 - 1))))
            else inr (Some (N.of_nat ri0, off0)) in
          match adj with
          | inl _ => (false, bi_with_dir it DSOI)
          | inr None => (false, bi_serr it ErrPanic)
          | inr (Some (ri', o)) =>
              match prev_scan (bi_fuel it) (bi_blk it) (bi_offRealStart it) (off i) o [] [] with
              | ScErr e => (false, bi_serr (bi_with_dir it DBackward) e)
              | ScOk k v st o' => (true, bi_with_pos it k v o' st ri' DBackward)
              end
          end
      end = (true, it') /\ rep_s it' (CAt (i - 1 - a)).
  Proof.
    intros Hai Hi Hs Hrs0 Hr Hle Hadj.
    pose proof Hs as (Eb & Ee & E1 & E2 & E3 & E4 & E5).
    pose proof (vo_z vok) as Hz. pose proof (vo_rl vok) as Hrl.
    rewrite Eb, E4, (lay_roff _ _ _ _ lay ri0 ltac:(lia)).
    assert (Hfuel : forall j, (i - j <= bi_fuel it)%nat).
    { intros j. unfold bi_fuel. rewrite Eb. pose proof (len_le_data kvs b off ris lay). lia. }
    assert (Ei : (a + (i - 1 - a))%nat = (i - 1)%nat) by lia.
    destruct (N.eqb_spec (off (nth ri0 ris 0%nat)) (off i)) as [Eo|No].
    - apply oinj in Eo; [| pose proof (ris_lt kvs b off ris lay ri0 kvs_ne ltac:(lia)); lia | lia].
      specialize (Hadj Eo). replace (N.of_nat ri0 =? 0) with false by lia.
      replace (N.of_nat ri0 - 1) with (N.of_nat (ri0 - 1)) by lia.
      rewrite (lay_roff _ _ _ _ lay (ri0 - 1)%nat) by lia. cbn [option_map]. cbv beta iota zeta.
      pose proof (lay_ris_incr _ _ _ _ lay (ri0 - 1)%nat ri0 ltac:(lia) ltac:(lia)) as Hinc.
      rewrite (prev_scan_s i Hai ltac:(lia) (bi_fuel it) (nth (ri0 - 1) ris 0%nat) [] []); try lia.
      + eexists. split; [reflexivity|]. unfold rep_s. rewrite !Ei.
        split; [lia|]. split; [exact Hs|]. split; [right; reflexivity|].
        cbn [bi_with_pos bi_key bi_value bi_offset bi_prevOffset bi_ri].
        replace (S (i - 1)) with i by lia.
        split; [reflexivity|]. split; [reflexivity|]. split; [reflexivity|]. split; [reflexivity|].
        exists (ri0 - 1)%nat. split; [lia|]. split; [lia|]. split; [reflexivity | lia].
      + apply Hfuel.
      + left. apply nth_In. lia.
    - assert (Hlt : (nth ri0 ris 0 < i)%nat).
      { destruct (Nat.eq_dec (nth ri0 ris 0%nat) i) as [E|]; [rewrite E in No; congruence | lia]. }
      cbv beta iota zeta.
      rewrite (prev_scan_s i Hai ltac:(lia) (bi_fuel it) (nth ri0 ris 0%nat) [] []); try lia.
      + eexists. split; [reflexivity|]. unfold rep_s. rewrite !Ei.
        split; [lia|]. split; [exact Hs|]. split; [right; reflexivity|].
        cbn [bi_with_pos bi_key bi_value bi_offset bi_prevOffset bi_ri].
        replace (S (i - 1)) with i by lia.
        split; [reflexivity|]. split; [reflexivity|]. split; [reflexivity|]. split; [reflexivity|].
        exists ri0. split; [exact Hrs0|]. split; [exact Hr|]. split; [reflexivity | lia].
      + apply Hfuel.
      + left. apply nth_In. lia.
  Qed.

  Lemma c_last_view : c_last view = if Nat.ltb a zl then CAt (zl - a - 1) else CSOI.
  Proof.
    unfold c_last. pose proof view_len as Hl. destruct (Nat.ltb_spec a zl) as [L|L].
    - destruct view eqn:E; [cbn in Hl; lia|]. rewrite Hl. reflexivity.
    - destruct view; [reflexivity | cbn in Hl; lia].
  Qed.

  Lemma prev_step_s it p : rep_s it p ->
    exists ok it', bi_prev it = (ok, it') /\ rep_s it' (c_prev view p) /\
                   ok = match c_prev view p with CAt _ => true | _ => false end.
  Proof.
    intros R. pose proof (vo_a vok) as Ha. pose proof (vo_z vok) as Hz.
    destruct p as [|i'|].
    - destruct R as [Hs Hd]. exists false, it. unfold bi_prev. rewrite Hd. cbn [bdir_eqb orb c_prev].
      split; [reflexivity|]. split; [split; assumption | reflexivity].
    - destruct R as (Hi & Hs & Hd & Hk & Hv & Ho & Hp & (r0 & Hrs0 & Hr0 & Er0 & Hle0)).
      pose proof Hs as (Eb & Ee & E1 & E2 & E3 & E4 & E5).
      unfold bi_prev. rewrite (has_err_s it Hs).
      replace (bdir_eqb (bi_dir it) DSOI) with false by (destruct Hd as [-> | ->]; reflexivity).
      cbn [orb].
      assert (Estart :
        match bi_dir it with
        | DEOI =>
            if bi_offLimit it =? bi_offRealStart it then inl tt
            else if bi_riLimit it =? 0 then inr None
            else inr (Some (bi_offLimit it, bi_riLimit it - 1))
        | _ =>
            if bi_prevOffset it =? bi_offRealStart it then inl tt
            else inr (option_map (fun r => (bi_prevOffset it, r))
                        (restart_index (bi_blk it) (bi_ri it) (bi_riLimit it) (bi_prevOffset it)))
        end =
        if bi_prevOffset it =? bi_offRealStart it then inl tt
            else inr (option_map (fun r => (bi_prevOffset it, r))
                        (restart_index (bi_blk it) (bi_ri it) (bi_riLimit it) (bi_prevOffset it)))).
      { destruct Hd as [-> | ->]; reflexivity. }
      rewrite Estart. clear Estart. rewrite Hp, E4.
      destruct i' as [|i''].
      + rewrite Nat.add_0_r, N.eqb_refl. cbn [c_prev].
        exists false, (bi_with_dir it DSOI). split; [reflexivity|]. split; [split; [exact Hs | reflexivity] | reflexivity].
      + set (i := (a + S i'')%nat) in *.
        pose proof (omono a i ltac:(lia) ltac:(lia)) as Hpos.
        replace (off i =? off a) with false by lia.
        rewrite Eb, Er0, E2.
        destruct (restart_index_s r0 i Hr0 Hle0 ltac:(lia)) as (r & Eri & Hrr0 & Hr & Hle). rewrite Eri. cbn [option_map].
        destruct (prev_finish_s it i r ltac:(lia) ltac:(lia) Hs ltac:(lia) Hr Hle) as (it' & E & R').
        * intros En. destruct (Nat.eq_dec r rs) as [->|]; [|lia].
          destruct (vo_start vok) as [[_ Hsa]|[_ Hal]]; lia.
        * rewrite Eb, E4 in E. exists true, it'. split; [exact E|]. cbn [c_prev].
          replace (i - 1 - a)%nat with i'' in R' by lia. auto.
    - destruct R as [Hs Hd].
      pose proof Hs as (Eb & Ee & E1 & E2 & E3 & E4 & E5).
      unfold bi_prev. rewrite (has_err_s it Hs), Hd. cbn [bdir_eqb orb].
      rewrite E5, E4, E2. cbn [c_prev]. rewrite c_last_view.
      destruct (Nat.ltb_spec a zl) as [L|L].
      + pose proof (omono a zl L Hz) as Hpos. replace (off zl =? off a) with false by lia.
        pose proof (vo_nonempty vok L) as Hrr. pose proof (vo_limit vok Hrr) as Hlim.
        replace (N.of_nat rl =? 0) with false by lia.
        replace (N.of_nat rl - 1) with (N.of_nat (rl - 1)) by lia.
        destruct (prev_finish_s it zl (rl - 1)%nat L ltac:(lia) Hs ltac:(lia) ltac:(lia) Hlim) as (it' & E & R').
        * intros En. destruct (Nat.eq_dec (rl - 1) rs) as [Z|]; [|lia].
          rewrite Z in En. destruct (vo_start vok) as [[_ Hsa]|[_ Hal]]; lia.
        * rewrite E4 in E. exists true, it'. split; [exact E|].
          replace (zl - 1 - a)%nat with (zl - a - 1)%nat in R' by lia. auto.
      + assert (Ez : off zl = off a) by (f_equal; lia). rewrite Ez, N.eqb_refl.
        exists false, (bi_with_dir it DSOI). split; [reflexivity|]. split; [split; [exact Hs | reflexivity] | reflexivity].
  Qed.

  Lemma step_refines_s it p o : rep_s it p ->
    exists ok it', bi_step c it o = (ok, it') /\ rep_s it' (c_step c view p o) /\
                   ok = match c_step c view p o with CAt _ => true | _ => false end.
  Proof.
    intros R. pose proof (rep_s_slice it p R) as Hs.
    destruct o as [| |k| |]; cbn [bi_step c_step].
    - unfold bi_first. rewrite (has_err_s it Hs).
      apply (next_step_s (bi_with_dir it DSOI) CSOI). split; [exact Hs | reflexivity].
    - unfold bi_last. rewrite (has_err_s it Hs).
      apply (prev_step_s (bi_with_dir it DEOI) CEOI). split; [exact Hs | reflexivity].
    - apply (seek_step_s it p k R).
    - apply (next_step_s it p R).
    - apply (prev_step_s it p R).
  Qed.

  Theorem run_refines_s ops : forall it p, rep_s it p -> bi_run c it ops = c_run c view p ops.
  Proof.
    induction ops as [|o r IH]; intros it p R; cbn [bi_run c_run]; [reflexivity|].
    destruct (step_refines_s it p o R) as (ok & it' & E & R' & Eok). rewrite E.
    rewrite (IH it' _ R'). f_equal.
    destruct (c_step c view p o) as [|i'|]; subst ok; cbn [c_get]; try reflexivity.
    destruct R' as (Hi & _ & _ & Hk & Hv & _). rewrite Hk, Hv. symmetry. apply view_kv. exact Hi.
  Qed.
End Sliced.

Section NewIter.
  Variable c : comparer.
  Hypothesis c_ok : comparer_ok c.
  Variable kvs : list (bytes * bytes).
  Variable b : block.
  Variable off : nat -> N.
  Variable ris : list nat.
  Hypothesis lay : block_layout kvs b off ris.
  Hypothesis srt : sorted c kvs.
  Hypothesis kvs_ne : (0 < length kvs)%nat.

  Local Notation len := (length kvs).
  Local Notation nr := (length ris).

  Definition start_spec (start : option bytes) (a : nat) : Prop :=
    match start with
    | None => a = 0%nat
    | Some s => (a <= len)%nat /\ (forall j, (j < a)%nat -> cmp c (key_at kvs j) s = Lt) /\
                ((a < len)%nat -> cmp c (key_at kvs a) s <> Lt)
    end.

  Definition limit_spec (limit : option bytes) (incl : bool) (a zl : nat) : Prop :=
    match limit with
    | None => zl = len
    | Some l => exists z, (a <= z)%nat /\ (z <= len)%nat /\
                  (forall j, (a <= j)%nat -> (j < z)%nat -> cmp c (key_at kvs j) l = Lt) /\
                  ((z < len)%nat -> cmp c (key_at kvs z) l <> Lt) /\
                  zl = (if incl then Nat.min (S z) len else z)
    end.

  Lemma view_full : view kvs 0 len = kvs.
  Proof. unfold view. rewrite Nat.sub_0_r. apply firstn_all. Qed.

  Lemma full_view_ok : view_ok kvs ris 0 len 0 nr.
  Proof.
    pose proof (lay_ris_len _ _ _ _ lay) as Hne.
    constructor; [lia | lia | lia | lia | | | intros; lia].
    - left. split; [exact Hne|]. rewrite (lay_ris_hd _ _ _ _ lay). lia.
    - intros _. pose proof (ris_lt kvs b off ris lay (nr - 1) kvs_ne ltac:(lia)). lia.
  Qed.

  Lemma slice_at_unsliced : slice_at b off ris 0 len 0 nr (bi_unsliced b).
  Proof.
    pose proof (lay_ris_len _ _ _ _ lay) as Hne.
    unfold slice_at, bi_unsliced. cbn [bi_blk bi_err bi_riStart bi_riLimit bi_offStart bi_offRealStart bi_offLimit].
    split; [reflexivity|]. split; [reflexivity|]. split; [reflexivity|].
    split; [rewrite (lay_rlen _ _ _ _ lay); reflexivity|].
    split.
    { rewrite (offS_lt b off ris 0 Hne), (lay_ris_hd _ _ _ _ lay), (lay_off0 _ _ _ _ lay). reflexivity. }
    split; [rewrite (lay_off0 _ _ _ _ lay); reflexivity | rewrite (lay_end _ _ _ _ lay); reflexivity].
  Qed.

  (* slice fields are independent of the position fields *)
  Lemma slice_at_with_start it a zl rs rl a' rs' :
    slice_at b off ris a zl rs rl it ->
    slice_at b off ris a' zl rs' rl (bi_with_start it (N.of_nat rs') (offS b off ris rs') (off a')).
  Proof.
    intros (Eb & Ee & E1 & E2 & E3 & E4 & E5). unfold slice_at, bi_with_start.
    cbn [bi_blk bi_err bi_riStart bi_riLimit bi_offStart bi_offRealStart bi_offLimit].
    repeat split; assumption.
  Qed.

  Lemma slice_at_with_limit it a zl rs rl zl' rl' :
    slice_at b off ris a zl rs rl it ->
    slice_at b off ris a zl' rs rl' (bi_with_limit it (N.of_nat rl') (off zl')).
  Proof.
    intros (Eb & Ee & E1 & E2 & E3 & E4 & E5). unfold slice_at, bi_with_limit.
    cbn [bi_blk bi_err bi_riStart bi_riLimit bi_offStart bi_offRealStart bi_offLimit].
    repeat split; assumption.
  Qed.

  Lemma slice_at_reset it a zl rs rl : slice_at b off ris a zl rs rl it -> slice_at b off ris a zl rs rl (bi_reset it).
  Proof. intros H. exact H. Qed.

  Lemma start_phase start :
    exists a rs bi1,
      match start with
      | None => bi_unsliced b
      | Some s =>
          let '(ok, bi') := bi_seek c (bi_unsliced b) s in
          if ok then
            match restart_index b (bi_ri bi') (b_rlen b) (bi_prevOffset bi') with
            | None => bi_serr bi' ErrPanic
            | Some rs0 =>
                match restart_offset b rs0 with
                | None => bi_serr bi' ErrPanic
                | Some os => bi_with_start bi' rs0 os (bi_prevOffset bi')
                end
            end
          else bi_with_start bi' (b_rlen b) (b_roff b) (b_roff b)
      end = bi1 /\
      view_ok kvs ris a len rs nr /\ slice_at b off ris a len rs nr bi1 /\ start_spec start a.
  Proof.
    destruct start as [s|].
    - destruct (seek_from_slice c c_ok kvs b off ris lay srt kvs_ne 0 len 0 nr full_view_ok (bi_unsliced b) s slice_at_unsliced)
        as (ok & bi' & E & R & Eok).
      rewrite view_full in R, Eok. rewrite E.
      destruct (c_seek_cases c s kvs) as [(a0 & Ea)|Ee].
      + rewrite Ea in R, Eok. subst ok.
        destruct R as (Ha0 & Hs & Hd & Hk & Hv & Ho & Hp & (r & _ & Hr1 & Hr2 & Hr3)). cbn [Nat.add] in *.
        rewrite Hp, Hr2, (lay_rlen _ _ _ _ lay). change (lenN ris) with (N.of_nat nr).
        destruct (restart_index_s kvs b off ris lay kvs_ne 0 len 0 nr full_view_ok r a0 Hr1 Hr3 Ha0) as (rs0 & Eri & _ & Hrs0 & Hle0).
        rewrite Eri, (lay_roff _ _ _ _ lay rs0 Hrs0).
        exists a0, rs0. eexists. split; [reflexivity|].
        assert (Hvo : view_ok kvs ris a0 len rs0 nr).
        { constructor; [lia | lia | lia | lia | left; split; assumption | | intros; lia].
          intros _. pose proof (ris_lt kvs b off ris lay (nr - 1) kvs_ne ltac:(lia)). lia. }
        split; [exact Hvo|]. split.
        * rewrite <- (offS_lt b off ris rs0 Hrs0). apply (slice_at_with_start bi' 0 len 0 nr a0 rs0). exact Hs.
        * apply c_seek_at in Ea as (kv & Hn & Hge & Hlt).
          rewrite (nth_kv kvs a0 Ha0) in Hn. injection Hn as <-. cbn [fst] in Hge.
          split; [lia|]. split; [|intros _; exact Hge].
          intros j Hj. apply (Hlt j (key_at kvs j, val_at kvs j) Hj). apply nth_kv. lia.
      + rewrite Ee in R, Eok. subst ok. destruct R as [Hs Hd].
        exists len, nr. eexists. split; [reflexivity|].
        assert (Hvo : view_ok kvs ris len len nr nr).
        { constructor; [lia | lia | lia | lia | right; split; reflexivity | intros; lia | intros; lia]. }
        split; [exact Hvo|]. split.
        * rewrite <- (offS_end b off ris nr (le_n _)) at 1. rewrite <- (lay_end _ _ _ _ lay) at 1.
          replace (b_rlen b) with (N.of_nat nr) by (rewrite (lay_rlen _ _ _ _ lay); reflexivity).
          apply (slice_at_with_start bi' 0 len 0 nr len nr). exact Hs.
        * split; [lia|]. split; [|intros; lia].
          intros j Hj. apply (c_seek_eoi_nth c s kvs Ee j (key_at kvs j, val_at kvs j)). apply nth_kv. exact Hj.
    - exists 0%nat, 0%nat, (bi_unsliced b). split; [reflexivity|].
      split; [exact full_view_ok|]. split; [exact slice_at_unsliced | reflexivity].
  Qed.

  (* the limit bound, on an iterator already restricted at the start *)
  Lemma limit_phase (limit : option bytes) (incl : bool) a rs bi1 :
    view_ok kvs ris a len rs nr -> slice_at b off ris a len rs nr bi1 ->
    exists zl rl bi2,
      match limit with
      | None => bi1
      | Some l =>
          let '(ok, bi') := bi_seek c bi1 l in
          if ok then
            (if incl then
               let '(ok2, bi'') := bi_next bi' in
               if ok2 then bi_with_limit bi'' (bi_ri bi'' + 1) (bi_prevOffset bi'') else bi''
             else bi_with_limit bi' (bi_ri bi' + 1) (bi_prevOffset bi'))
          else bi'
      end = bi2 /\
      view_ok kvs ris a zl rs rl /\ slice_at b off ris a zl rs rl bi2 /\ limit_spec limit incl a zl.
  Proof.
    intros vok1 Hs1. destruct limit as [l|].
    - destruct (seek_from_slice c c_ok kvs b off ris lay srt kvs_ne a len rs nr vok1 bi1 l Hs1) as (ok & bi' & E & R & Eok).
      rewrite E.
      pose proof (vo_a _ _ _ _ _ _ vok1) as Ha.
      assert (Hvn : forall j', (a + j' < len)%nat -> nth_error (view kvs a len) j' = Some (key_at kvs (a + j'), val_at kvs (a + j')))
        by (intros j' Hj'; apply (view_kv kvs ris kvs_ne a len rs nr vok1); exact Hj').
      destruct (c_seek_cases c l (view kvs a len)) as [(z' & Ez)|Ee].
      + rewrite Ez in R, Eok. subst ok.
        pose proof R as (Hz & Hs & Hd & Hk & Hv & Ho & Hp & (r & Hr0 & Hr1 & Hr2 & Hr3)).
        set (z := (a + z')%nat) in *.
        apply c_seek_at in Ez as (kv & Hn & Hge & Hlt).
        rewrite (Hvn z' Hz) in Hn. injection Hn as <-. cbn [fst] in Hge. fold z in Hge.
        assert (Hbelow : forall j, (a <= j)%nat -> (j < z)%nat -> cmp c (key_at kvs j) l = Lt).
        { intros j H1 H2. replace j with (a + (j - a))%nat by lia.
          apply (Hlt (j - a)%nat (key_at kvs (a + (j - a)), val_at kvs (a + (j - a)))); [unfold z in H2; lia|].
          apply Hvn. unfold z in H2. lia. }
        destruct incl.
        * (* inclusive: one step further *)
          destruct (next_step_s kvs b off ris lay kvs_ne a len rs nr vok1 bi' (CAt z') R) as (ok2 & bi'' & E2 & R2 & Eok2).
          rewrite E2. cbn [c_next] in R2, Eok2.
          rewrite (view_len kvs ris kvs_ne a len rs nr vok1) in R2, Eok2.
          destruct (Nat.ltb_spec (S z') (len - a)) as [L|L]; subst ok2.
          -- destruct R2 as (Hz2 & Hs2 & Hd2 & Hk2 & Hv2 & Ho2 & Hp2 & (r2 & Hq0 & Hq1 & Hq2 & Hq3)).
             exists (S z), (S r2). eexists. split; [reflexivity|].
             assert (Hvo : view_ok kvs ris a (S z) rs (S r2)).
             { constructor; [unfold z; lia | unfold z; lia | lia | lia | exact (vo_start _ _ _ _ _ _ vok1) | | intros; lia].
               intros _. replace (S r2 - 1)%nat with r2 by lia. unfold z. lia. }
             split; [exact Hvo|]. split.
             ++ rewrite Hq2, Hp2. replace (N.of_nat r2 + 1) with (N.of_nat (S r2)) by lia.
                replace (a + S z')%nat with (S z) by (unfold z; lia).
                apply (slice_at_with_limit bi'' a len rs nr). exact Hs2.
             ++ exists z. split; [unfold z; lia|]. split; [lia|]. split; [exact Hbelow|]. split; [intros _; exact Hge|].
                unfold z. lia.
          -- destruct R2 as [Hs2 Hd2].
             exists len, nr, bi''. split; [reflexivity|]. split; [exact vok1|]. split; [exact Hs2|].
             exists z. split; [unfold z; lia|]. split; [lia|]. split; [exact Hbelow|]. split; [intros _; exact Hge|].
             unfold z. lia.
        * exists z, (S r). eexists. split; [reflexivity|].
          assert (Hvo : view_ok kvs ris a z rs (S r)).
          { constructor; [unfold z; lia | lia | lia | lia | exact (vo_start _ _ _ _ _ _ vok1) | | intros; lia].
            intros _. replace (S r - 1)%nat with r by lia. exact Hr3. }
          split; [exact Hvo|]. split.
          -- rewrite Hr2, Hp. replace (N.of_nat r + 1) with (N.of_nat (S r)) by lia.
             apply (slice_at_with_limit bi' a len rs nr). exact Hs.
          -- exists z. split; [unfold z; lia|]. split; [lia|]. split; [exact Hbelow|]. split; [intros _; exact Hge | reflexivity].
      + rewrite Ee in R, Eok. subst ok. destruct R as [Hs Hd].
        exists len, nr, bi'. split; [reflexivity|]. split; [exact vok1|]. split; [exact Hs|].
        exists len. split; [pose proof (vo_z _ _ _ _ _ _ vok1); lia|]. split; [lia|]. split.
        * intros j H1 H2. replace j with (a + (j - a))%nat by lia.
          apply (c_seek_eoi_nth c l (view kvs a len) Ee (j - a)%nat (key_at kvs (a + (j - a)), val_at kvs (a + (j - a)))).
          apply Hvn. lia.
        * split; [intros; lia|]. destruct incl; lia.
    - exists len, nr, bi1. split; [reflexivity|]. split; [exact vok1|]. split; [exact Hs1 | reflexivity].
  Qed.

  Theorem new_block_iter_sliced (start limit : option bytes) (incl : bool) :
    exists a zl rs rl,
      view_ok kvs ris a zl rs rl /\
      rep_s kvs b off ris a zl rs rl (new_block_iter c b (Some (start, limit)) incl) CSOI /\
      start_spec start a /\ limit_spec limit incl a zl.
  Proof.
    destruct (start_phase start) as (a & rs & bi1 & E1 & vok1 & Hs1 & Hst).
    destruct (limit_phase limit incl a rs bi1 vok1 Hs1) as (zl & rl & bi2 & E2 & vok2 & Hs2 & Hli).
    exists a, zl, rs, rl. split; [exact vok2|]. split; [|split; assumption].
    unfold new_block_iter. cbv zeta. rewrite E1, E2.
    pose proof Hs2 as (_ & _ & _ & _ & E3 & _ & E5).
    assert (Hle : bi_offLimit (bi_reset bi2) <? bi_offStart (bi_reset bi2) = false).
    { cbn [bi_reset bi_with_pos bi_offLimit bi_offStart]. rewrite E3, E5.
      pose proof (offS_le kvs b off ris lay kvs_ne a zl rs rl vok2).
      pose proof (off_mono_le kvs b off ris lay a zl (vo_a _ _ _ _ _ _ vok2) (vo_z _ _ _ _ _ _ vok2)). lia. }
    rewrite Hle. split; [apply slice_at_reset; exact Hs2 | reflexivity].
  Qed.
End NewIter.

Lemma filter_segments {A} (p : A -> bool) (l1 l2 l3 : list A) :
  (forall x, In x l1 -> p x = false) -> (forall x, In x l2 -> p x = true) -> (forall x, In x l3 -> p x = false) ->
  filter p (l1 ++ l2 ++ l3) = l2.
Proof.
  intros H1 H2 H3. rewrite !filter_app.
  assert (E1 : filter p l1 = []).
  { clear H2 H3. induction l1 as [|x l IH]; [reflexivity|]. cbn [filter]. rewrite (H1 x (or_introl eq_refl)).
    apply IH. intros y Hy. apply H1. right. exact Hy. }
  assert (E3 : filter p l3 = []).
  { clear H1 H2. induction l3 as [|x l IH]; [reflexivity|]. cbn [filter]. rewrite (H3 x (or_introl eq_refl)).
    apply IH. intros y Hy. apply H3. right. exact Hy. }
  assert (E2 : filter p l2 = l2).
  { clear H1 H3. induction l2 as [|x l IH]; [reflexivity|]. cbn [filter]. rewrite (H2 x (or_introl eq_refl)).
    f_equal. apply IH. intros y Hy. apply H2. right. exact Hy. }
  rewrite E1, E2, E3, app_nil_r. reflexivity.
Qed.

Section ViewRestrict.
  Variable c : comparer.
  Hypothesis c_ok : comparer_ok c.
  Variable kvs : list (bytes * bytes).
  Hypothesis srt : sorted c kvs.
  Local Notation len := (length kvs).

  Lemma kvs_segments a zl : (a <= zl)%nat -> (zl <= len)%nat ->
    kvs = firstn a kvs ++ view kvs a zl ++ skipn zl kvs.
  Proof.
    intros H1 H2. unfold view.
    rewrite <- (firstn_skipn a kvs) at 1. f_equal.
    rewrite <- (firstn_skipn (zl - a) (skipn a kvs)) at 1. f_equal.
    rewrite VarintProofs.skipn_skipn'. f_equal. lia.
  Qed.

  Lemma in_firstn_idx (x : bytes * bytes) a : In x (firstn a kvs) -> exists j, (j < a)%nat /\ (j < len)%nat /\ nth_error kvs j = Some x.
  Proof.
    intros H. apply In_nth_error in H as (j & Hj).
    assert (L : (j < length (firstn a kvs))%nat) by (apply nth_error_Some; rewrite Hj; discriminate).
    rewrite firstn_length in L. exists j. split; [lia|]. split; [lia|].
    rewrite nth_error_firstn_lt in Hj by lia. exact Hj.
  Qed.

  Lemma in_skipn_idx (x : bytes * bytes) z : In x (skipn z kvs) -> exists j, (z <= j)%nat /\ (j < len)%nat /\ nth_error kvs j = Some x.
  Proof.
    intros H. apply In_nth_error in H as (j & Hj). rewrite nth_error_skipn in Hj.
    exists (z + j)%nat. split; [lia|]. split; [apply nth_error_Some; rewrite Hj; discriminate | exact Hj].
  Qed.

  Lemma in_view_idx (x : bytes * bytes) a zl : (a <= zl)%nat -> (zl <= len)%nat -> In x (view kvs a zl) ->
    exists j, (a <= j)%nat /\ (j < zl)%nat /\ nth_error kvs j = Some x.
  Proof.
    intros H1 H2 H. apply In_nth_error in H as (j & Hj).
    assert (L : (j < length (view kvs a zl))%nat) by (apply nth_error_Some; rewrite Hj; discriminate).
    unfold view in L. rewrite firstn_length, skipn_length in L.
    rewrite view_nth in Hj by lia. exists (a + j)%nat. split; [lia|]. split; [lia | exact Hj].
  Qed.

  Lemma key_mono i j : (i <= j)%nat -> (j < len)%nat -> cmp c (key_at kvs i) (key_at kvs j) <> Gt.
  Proof.
    intros Hij Hj. destruct (Nat.eq_dec i j) as [->|]; [apply (OrderProofs.le_refl c c_ok)|].
    apply (OrderProofs.lt_le c). apply (keys_lt c c_ok kvs srt); lia.
  Qed.

  Theorem view_is_restrict start limit a zl :
    start_spec c kvs start a -> limit_spec c kvs limit false a zl ->
    (a <= zl)%nat -> (zl <= len)%nat ->
    view kvs a zl = restrict c start limit kvs.
  Proof.
    intros Hst Hli Haz Hz. unfold restrict.
    rewrite (kvs_segments a zl Haz Hz) at 2. symmetry. apply filter_segments.
    - (* before the start *)
      intros x Hin. apply in_firstn_idx in Hin as (j & Hj & Hjl & Hn).
      rewrite (nth_kv kvs j Hjl) in Hn. injection Hn as <-. unfold in_range. cbn [fst].
      destruct start as [s|]; [|cbn in Hst; lia].
      destruct Hst as (_ & Hlt & _). unfold Order.leb.
      pose proof (Hlt j Hj) as L. apply (cmp_lt_gt c c_ok) in L. rewrite L. reflexivity.
    - (* inside *)
      intros x Hin. apply (in_view_idx x a zl Haz Hz) in Hin as (j & Hj1 & Hj2 & Hn).
      rewrite (nth_kv kvs j ltac:(lia)) in Hn. injection Hn as <-. unfold in_range. cbn [fst].
      apply andb_true_intro. split.
      + destruct start as [s|]; [|reflexivity]. destruct Hst as (_ & _ & Hge). unfold Order.leb.
        specialize (Hge ltac:(lia)).
        pose proof (key_mono a j Hj1 ltac:(lia)) as M.
        assert (Hle : cmp c s (key_at kvs j) <> Gt).
        { apply (OrderProofs.le_trans c c_ok _ (key_at kvs a)); [|exact M]. apply (OrderProofs.not_lt_le c c_ok). exact Hge. }
        destruct (cmp c s (key_at kvs j)); congruence.
      + destruct limit as [l|]; [|reflexivity]. destruct Hli as (z & _ & _ & Hlt & _ & Ez). subst zl.
        unfold Order.ltb. rewrite (Hlt j Hj1 Hj2). reflexivity.
    - (* after the limit *)
      intros x Hin. apply in_skipn_idx in Hin as (j & Hj1 & Hjl & Hn).
      rewrite (nth_kv kvs j Hjl) in Hn. injection Hn as <-. unfold in_range. cbn [fst].
      destruct limit as [l|]; [|cbn in Hli; lia].
      destruct Hli as (z & _ & _ & _ & Hge & Ez). subst zl. specialize (Hge ltac:(lia)).
      pose proof (key_mono z j Hj1 Hjl) as M.
      assert (Hle : cmp c l (key_at kvs j) <> Gt).
      { apply (OrderProofs.le_trans c c_ok _ (key_at kvs z)); [|exact M]. apply (OrderProofs.not_lt_le c c_ok). exact Hge. }
      unfold Order.ltb. apply andb_false_intro2.
      rewrite (cmp_opp c c_ok l (key_at kvs j)). destruct (cmp c l (key_at kvs j)); cbn; congruence.
  Qed.
End ViewRestrict.

Theorem block_iter_sliced_refines c ri kvs start limit :
  comparer_ok c -> 1 <= ri -> lenN (block_build ri kvs) < 2 ^ 32 -> sorted c kvs -> kvs <> [] ->
  exists b, read_block (block_build ri kvs) = Ok b /\
    forall ops, bi_run c (new_block_iter c b (Some (start, limit)) false) ops
                = c_run c (restrict c start limit kvs) CSOI ops.
Proof.
  intros Hc Hri Hsz Hs Hne. exists (built ri kvs). split; [apply read_block_build; assumption|].
  pose proof (build_layout ri kvs Hri Hsz) as lay.
  assert (Hpos : (0 < length kvs)%nat) by (destruct kvs; [congruence | cbn; lia]).
  destruct (new_block_iter_sliced c Hc kvs _ _ _ lay Hs Hpos start limit false) as (a & zl & rs & rl & vok & R & Hst & Hli).
  intros ops.
  rewrite (run_refines_s c Hc kvs _ _ _ lay Hs Hpos a zl rs rl vok ops _ CSOI R).
  rewrite (view_is_restrict c Hc kvs Hs start limit a zl Hst Hli (vo_a _ _ _ _ _ _ vok) (vo_z _ _ _ _ _ _ vok)).
  reflexivity.
Qed.
