(* Codec/BlockEnc.v — what blockWriter produces (closed form of the entries area and of the
   restart array) and that Reader.readBlock / block.entry / block.restartOffset read it back.
   The result is packaged as [block_layout] ([build_layout]); the iterator proofs work from a
   [block_layout] and never from the writer.  Also a few list lemmas that later files use. *)
From GL Require Import Base.BytesProofs Base.VarintProofs Codec.Block.
From GL Require Mem.ListLemmas.
From Coq Require Import ZArith Lia.

Local Open Scope N_scope.

Lemma spl_le_l a : forall b, shared_prefix_len a b <= lenN a.
Proof.
  induction a as [|x a IH]; intros [|y b]; cbn [shared_prefix_len]; try (unfold lenN; cbn [length]; lia).
  destruct (x =? y); [|lia]. specialize (IH b). rewrite lenN_cons. lia.
Qed.

Lemma spl_le_r a : forall b, shared_prefix_len a b <= lenN b.
Proof.
  induction a as [|x a IH]; intros [|y b]; cbn [shared_prefix_len]; try (unfold lenN; cbn [length]; lia).
  destruct (x =? y); [|lia]. specialize (IH b). rewrite lenN_cons. lia.
Qed.

Lemma takeN_succ_cons {A} n (x : A) l : takeN (1 + n) (x :: l) = x :: takeN n l.
Proof. unfold takeN. replace (N.to_nat (1 + n)) with (S (N.to_nat n)) by lia. reflexivity. Qed.

Lemma dropN_succ_cons {A} n (x : A) l : dropN (1 + n) (x :: l) = dropN n l.
Proof. unfold dropN. replace (N.to_nat (1 + n)) with (S (N.to_nat n)) by lia. reflexivity. Qed.

Lemma spl_take a : forall b, takeN (shared_prefix_len a b) a = takeN (shared_prefix_len a b) b.
Proof.
  induction a as [|x a IH]; intros [|y b]; cbn [shared_prefix_len]; try reflexivity.
  destruct (N.eqb_spec x y) as [->|]; [|reflexivity].
  rewrite !takeN_succ_cons. f_equal. apply IH.
Qed.

Lemma rebuild_key nsh prev k :
  nsh = 0 \/ nsh = shared_prefix_len prev k -> takeN nsh prev ++ dropN nsh k = k.
Proof.
  intros [->| ->]; [reflexivity|]. rewrite spl_take. apply takeN_dropN.
Qed.

Definition enc_entry (nsh : N) (k v : bytes) : bytes :=
  put_uvarint nsh ++ put_uvarint (lenN k - nsh) ++ put_uvarint (lenN v) ++ dropN nsh k ++ v.

Definition nsh_of (ri n : N) (prev k : bytes) : N :=
  if n mod ri =? 0 then 0 else shared_prefix_len prev k.

Fixpoint enc_entries (ri n : N) (prev : bytes) (kvs : list (bytes * bytes)) : bytes :=
  match kvs with
  | [] => []
  | (k, v) :: r => enc_entry (nsh_of ri n prev k) k v ++ enc_entries ri (n + 1) k r
  end.

Fixpoint enc_restarts (ri n : N) (prev : bytes) (base : N) (kvs : list (bytes * bytes)) : list N :=
  match kvs with
  | [] => []
  | (k, v) :: r =>
      (if n mod ri =? 0 then [base] else []) ++
      enc_restarts ri (n + 1) k (base + lenN (enc_entry (nsh_of ri n prev k) k v)) r
  end.

Definition last_key (prev : bytes) (kvs : list (bytes * bytes)) : bytes :=
  match rev kvs with [] => prev | (k, _) :: _ => k end.

Lemma last_key_cons prev k v r : last_key prev ((k, v) :: r) = last_key k r.
Proof.
  unfold last_key. cbn [rev]. destruct (rev r) as [|[k' v'] r'] eqn:E; reflexivity.
Qed.

Lemma bw_append_spec ri w k v :
  bw_append ri w k v =
  mkBW (bw_buf w ++ enc_entry (nsh_of ri (bw_n w) (bw_prev w) k) k v) (bw_n w + 1) k
       (bw_restarts w ++ (if bw_n w mod ri =? 0 then [lenN (bw_buf w)] else [])).
Proof.
  unfold bw_append, enc_entry, nsh_of. f_equal.
  destruct (bw_n w mod ri =? 0); [reflexivity | symmetry; apply app_nil_r].
Qed.

Lemma bw_append_all_spec ri kvs : forall w,
  bw_append_all ri w kvs =
  mkBW (bw_buf w ++ enc_entries ri (bw_n w) (bw_prev w) kvs)
       (bw_n w + lenN kvs)
       (last_key (bw_prev w) kvs)
       (bw_restarts w ++ enc_restarts ri (bw_n w) (bw_prev w) (lenN (bw_buf w)) kvs).
Proof.
  unfold bw_append_all.
  induction kvs as [|[k v] r IH]; intros w; cbn [fold_left enc_entries enc_restarts].
  - destruct w as [b n p rs]; cbn [bw_buf bw_n bw_prev bw_restarts]. unfold last_key; cbn [rev].
    rewrite !app_nil_r, lenN_nil, N.add_0_r. reflexivity.
  - rewrite IH. cbn [fst snd]. rewrite bw_append_spec. cbn [bw_buf bw_n bw_prev bw_restarts].
    rewrite last_key_cons, lenN_cons, lenN_app, <- !app_assoc. f_equal. lia.
Qed.

Lemma enc_entries_app ri a : forall n prev b,
  enc_entries ri n prev (a ++ b) =
  enc_entries ri n prev a ++ enc_entries ri (n + lenN a) (last_key prev a) b.
Proof.
  induction a as [|[k v] a IH]; intros n prev b; cbn [app enc_entries].
  - rewrite lenN_nil, N.add_0_r. reflexivity.
  - rewrite IH, last_key_cons, lenN_cons, <- app_assoc. do 3 f_equal. lia.
Qed.

Lemma enc_entry_length nsh k v :
  lenN (enc_entry nsh k v) =
  lenN (put_uvarint nsh) + lenN (put_uvarint (lenN k - nsh)) + lenN (put_uvarint (lenN v))
  + (lenN k - nsh) + lenN v.
Proof. unfold enc_entry. rewrite !lenN_app, lenN_dropN. lia. Qed.

Lemma enc_entry_length_ge3 nsh k v : 3 <= lenN (enc_entry nsh k v).
Proof.
  unfold enc_entry. rewrite !lenN_app.
  pose proof (put_uvarint_length nsh). pose proof (put_uvarint_length (lenN k - nsh)).
  pose proof (put_uvarint_length (lenN v)). lia.
Qed.

Lemma nsh_of_le ri n prev k : nsh_of ri n prev k <= lenN k.
Proof. unfold nsh_of. destruct (n mod ri =? 0); [lia | apply spl_le_r]. Qed.

Lemma nsh_of_cases ri n prev k :
  nsh_of ri n prev k = 0 \/ nsh_of ri n prev k = shared_prefix_len prev k.
Proof. unfold nsh_of. destruct (n mod ri =? 0); auto. Qed.

Lemma lenN_flat_le32 l : lenN (flat_map le32 l) = 4 * lenN l.
Proof.
  induction l as [|x l IH]; cbn [flat_map]; [reflexivity|].
  rewrite lenN_app, lenN_le32, lenN_cons, IH. lia.
Qed.

Lemma le32_decode x : x < 2 ^ 32 -> le_decode (le32 x) = x.
Proof.
  intros H. unfold le32. rewrite le_decode_encode. change (256 ^ N.of_nat 4) with (2 ^ 32).
  apply N.mod_small. exact H.
Qed.

Lemma flat_le32_slice l : forall r x,
  nth_error l r = Some x ->
  sliceN (4 * N.of_nat r) (4 * N.of_nat r + 4) (flat_map le32 l) = le32 x.
Proof.
  induction l as [|y l IH]; intros [|r] x H; cbn [nth_error] in H; try discriminate.
  - injection H as ->. cbn [flat_map]. unfold sliceN. change (4 * N.of_nat 0) with 0.
    rewrite dropN_0. rewrite <- (lenN_le32 x) at 1. replace (0 + lenN (le32 x) - 0) with (lenN (le32 x)) by lia.
    apply takeN_app.
  - cbn [flat_map]. unfold sliceN.
    rewrite dropN_app_ge by (rewrite lenN_le32; lia).
    rewrite lenN_le32.
    specialize (IH r x H). unfold sliceN in IH.
    replace (4 * N.of_nat (S r) - 4) with (4 * N.of_nat r) by lia.
    replace (4 * N.of_nat (S r) + 4 - 4 * N.of_nat (S r)) with (4 * N.of_nat r + 4 - 4 * N.of_nat r) by lia.
    exact IH.
Qed.

Lemma two63_eq : two63 = 2 ^ 63.
Proof. reflexivity. Qed.

Lemma uvarint_at pre x post : x < 2 ^ 64 ->
  uvarint (dropN (lenN pre) (pre ++ put_uvarint x ++ post)) = UvOk x (lenN (put_uvarint x)).
Proof. intros H. rewrite dropN_app. apply uvarint_put. exact H. Qed.

(* an entry where it stands in the block: its three headers decode one after the other, and the
   key suffix and the value are the two pieces that follow them *)
Lemma entry_parts pre x0 x1 x2 ks v post : x0 < 2 ^ 64 -> x1 < 2 ^ 64 -> x2 < 2 ^ 64 ->
  let p0 := put_uvarint x0 in let p1 := put_uvarint x1 in let p2 := put_uvarint x2 in
  let data := pre ++ p0 ++ p1 ++ p2 ++ ks ++ v ++ post in
  let m := lenN pre + lenN p0 + lenN p1 + lenN p2 in
  uvarint (dropN (lenN pre) data) = UvOk x0 (lenN p0) /\
  uvarint (dropN (lenN pre + lenN p0) data) = UvOk x1 (lenN p1) /\
  uvarint (dropN (lenN pre + lenN p0 + lenN p1) data) = UvOk x2 (lenN p2) /\
  sliceN m (m + lenN ks) data = ks /\ sliceN (m + lenN ks) (m + lenN ks + lenN v) data = v.
Proof.
  intros H0 H1 H2 p0 p1 p2 data m. unfold m, data.
  rewrite <- (lenN_app pre p0), <- (lenN_app (pre ++ p0) p1), <- (lenN_app ((pre ++ p0) ++ p1) p2).
  split; [exact (uvarint_at pre x0 _ H0)|].
  rewrite (app_assoc pre). split; [exact (uvarint_at _ x1 _ H1)|].
  rewrite (app_assoc (pre ++ p0)). split; [exact (uvarint_at _ x2 _ H2)|].
  rewrite (app_assoc ((pre ++ p0) ++ p1)). split; [apply sliceN_app3|].
  rewrite <- (lenN_app (((pre ++ p0) ++ p1) ++ p2) ks), (app_assoc (((pre ++ p0) ++ p1) ++ p2)). apply sliceN_app3.
Qed.

Lemma block_entry_at pre nsh k v post rl roff :
  nsh <= lenN k -> lenN k < 2 ^ 63 ->
  lenN pre + lenN (enc_entry nsh k v) <= roff -> roff < 2 ^ 63 ->
  block_entry (mkBlock (pre ++ enc_entry nsh k v ++ post) rl roff) (lenN pre)
  = EntOk (dropN nsh k) v nsh (lenN (enc_entry nsh k v)).
Proof.
  intros Hn Hk Hle Hr.
  pose proof (enc_entry_length nsh k v) as HL.
  pose proof (put_uvarint_length nsh) as L0.
  assert (B64 : 2 ^ 63 < 2 ^ 64) by (apply N.pow_lt_mono_r; lia).
  destruct (entry_parts pre nsh (lenN k - nsh) (lenN v) (dropN nsh k) v post) as (E0 & E1 & E2 & Sk & Sv); [lia | lia | lia |].
  unfold enc_entry in *. rewrite <- !app_assoc.
  set (p0 := put_uvarint nsh) in *. set (p1 := put_uvarint (lenN k - nsh)) in *. set (p2 := put_uvarint (lenN v)) in *.
  rewrite lenN_dropN in Sk, Sv.
  unfold block_entry. cbn [b_roff b_data].
  replace (roff <=? lenN pre) with false by lia.
  rewrite E0. cbn [uv_adv]. rewrite E1. cbn [uv_adv]. rewrite E2.
  rewrite two63_eq.
  replace (2 ^ 63 <=? lenN k - nsh) with false by lia.
  replace (2 ^ 63 <=? lenN v) with false by lia.
  replace (2 ^ 63 <=? lenN pre + (lenN p0 + lenN p1 + lenN p2 + (lenN k - nsh) + lenN v)) with false
    by lia.
  cbn [orb].
  replace (roff <? lenN pre + (lenN p0 + lenN p1 + lenN p2 + (lenN k - nsh) + lenN v)) with false
    by lia.
  replace (lenN pre + (lenN p0 + lenN p1 + lenN p2)) with (lenN pre + lenN p0 + lenN p1 + lenN p2) by lia.
  replace (lenN pre + (lenN p0 + lenN p1 + lenN p2 + (lenN k - nsh) + lenN v))
    with (lenN pre + lenN p0 + lenN p1 + lenN p2 + (lenN k - nsh) + lenN v) by lia.
  rewrite Sk, Sv. f_equal. rewrite !lenN_app, lenN_dropN. lia.
Qed.

Lemma enc_restarts_map ri l : forall n prev base,
  enc_restarts ri n prev base l =
  map (fun j => base + lenN (enc_entries ri n prev (firstn j l)))
      (filter (fun j => (n + N.of_nat j) mod ri =? 0) (seq 0 (length l))).
Proof.
  induction l as [|[k v] r IH]; intros n prev base; cbn [enc_restarts length seq]; [reflexivity|].
  cbn [filter]. change (N.of_nat 0) with 0. rewrite N.add_0_r.
  assert (Etail :
    enc_restarts ri (n + 1) k (base + lenN (enc_entry (nsh_of ri n prev k) k v)) r
    = map (fun j => base + lenN (enc_entries ri n prev (firstn j ((k, v) :: r))))
        (filter (fun j => (n + N.of_nat j) mod ri =? 0) (seq 1 (length r)))).
  { rewrite IH, <- seq_shift, ListLemmas.map_filter_comm, map_map.
    rewrite (filter_ext (fun j => (n + 1 + N.of_nat j) mod ri =? 0) (fun x => (n + N.of_nat (S x)) mod ri =? 0)).
    - apply map_ext. intros j. cbn [firstn enc_entries]. rewrite lenN_app. lia.
    - intros j. f_equal. f_equal. lia. }
  rewrite Etail.
  destruct (n mod ri =? 0); cbn [app map firstn enc_entries]; [|reflexivity].
  rewrite ?lenN_nil, ?N.add_0_r. reflexivity.
Qed.

Definition incr_nth (l : list nat) : Prop :=
  forall i j, (i < j)%nat -> (j < length l)%nat -> (nth i l 0 < nth j l 0)%nat.

Lemma incr_nth_cons x l : Forall (fun y => (x < y)%nat) l -> incr_nth l -> incr_nth (x :: l).
Proof.
  intros HF HI i j Hij Hj. destruct j as [|j]; [lia|]. cbn [length] in Hj.
  destruct i as [|i]; cbn [nth].
  - rewrite Forall_forall in HF. apply HF. apply nth_In. lia.
  - apply HI; lia.
Qed.

Lemma filter_seq_incr f a n : incr_nth (filter f (seq a n)).
Proof.
  revert a. induction n as [|n IH]; intros a; cbn [seq filter].
  - intros i j _ H. cbn in H. lia.
  - destruct (f a); [|apply IH].
    apply incr_nth_cons; [|apply IH].
    apply Forall_forall. intros y Hy. apply filter_In in Hy as [Hy _]. apply in_seq in Hy. lia.
Qed.

Definition key_at (kvs : list (bytes * bytes)) (i : nat) : bytes := fst (nth i kvs ([], [])).
Definition val_at (kvs : list (bytes * bytes)) (i : nat) : bytes := snd (nth i kvs ([], [])).

(* [off i] is the byte offset of entry i, [off (length kvs)] the restartsOffset; [ris] lists the
   entry indices of the restart points.  In [lay_read] the entry decodes against any previous
   key [pk] at a restart point (nothing is shared there), elsewhere against the key before it. *)
Record block_layout (kvs : list (bytes * bytes)) (b : block) (off : nat -> N) (ris : list nat) : Prop := {
  lay_off0 : off 0%nat = 0;
  lay_step : forall i, (i < length kvs)%nat -> off i + 3 <= off (S i);
  lay_end : off (length kvs) = b_roff b;
  lay_data : b_roff b <= lenN (b_data b);
  lay_read : forall i pk, (i < length kvs)%nat ->
      (In i ris \/ (0 < i)%nat /\ pk = key_at kvs (i - 1)) ->
      bi_read b pk (off i) = RdOk (key_at kvs i) (val_at kvs i) (off (S i) - off i);
  lay_rlen : b_rlen b = lenN ris;
  lay_ris_hd : nth 0 ris 0%nat = 0%nat;
  lay_ris_len : (0 < length ris)%nat;
  lay_ris_empty : kvs = [] -> length ris = 1%nat;
  lay_ris_incr : incr_nth ris;
  lay_ris_lt : kvs <> [] -> forall r, (r < length ris)%nat -> (nth r ris 0 < length kvs)%nat;
  lay_roff : forall r, (r < length ris)%nat ->
      restart_offset b (N.of_nat r) = Some (off (nth r ris 0%nat));
  lay_rkey : forall r, (r < length ris)%nat ->
      exists k, restart_key b (N.of_nat r) = Some k /\ (kvs <> [] -> k = key_at kvs (nth r ris 0%nat));
  (* one past the restart array is the restart count (block.seek reads it for an empty restart range) *)
  lay_count : restart_offset b (lenN ris) = Some (lenN ris)
}.

Lemma lenN_map {A B} (f : A -> B) l : lenN (map f l) = lenN l.
Proof. unfold lenN. rewrite map_length. reflexivity. Qed.

Lemma lenN_firstn {A} i (l : list A) : (i <= length l)%nat -> lenN (firstn i l) = N.of_nat i.
Proof. intros H. unfold lenN. rewrite firstn_length. lia. Qed.

Lemma last_key_snoc prev l k v : last_key prev (l ++ [(k, v)]) = k.
Proof. unfold last_key. rewrite rev_app_distr. reflexivity. Qed.

(* every key is at most as long as the previous key plus the encoded entries *)
Lemma enc_key_bound ri l : forall n prev k v,
  In (k, v) l -> lenN k <= lenN prev + lenN (enc_entries ri n prev l).
Proof.
  induction l as [|[k0 v0] r IH]; intros n prev k v H; [destruct H|].
  cbn [enc_entries]. rewrite lenN_app.
  pose proof (enc_entry_length (nsh_of ri n prev k0) k0 v0) as HL.
  assert (Hs : nsh_of ri n prev k0 <= lenN prev).
  { unfold nsh_of. destruct (n mod ri =? 0); [lia | apply spl_le_l]. }
  destruct H as [H|H].
  - injection H as -> ->. lia.
  - specialize (IH (n + 1) k0 k v H). lia.
Qed.

Section Build.
  Variable ri : N.
  Variable kvs : list (bytes * bytes).
  Hypothesis ri_pos : 1 <= ri.
  Hypothesis size_ok : lenN (block_build ri kvs) < 2 ^ 32.

  Definition b_off (i : nat) : N := lenN (enc_entries ri 0 [] (firstn i kvs)).
  Definition b_ris : list nat :=
    match kvs with
    | [] => [0%nat]
    | _ => filter (fun j => N.of_nat j mod ri =? 0) (seq 0 (length kvs))
    end.
  Definition built : block :=
    mkBlock (block_build ri kvs) (lenN b_ris) (lenN (enc_entries ri 0 [] kvs)).

  Lemma block_build_eq :
    block_build ri kvs =
    enc_entries ri 0 [] kvs ++ flat_map le32 (map b_off b_ris ++ [lenN b_ris]).
  Proof.
    unfold block_build. rewrite bw_append_all_spec. unfold bw_finish.
    cbv [bw_buf bw_n bw_prev bw_restarts bw_empty]. cbn [app]. rewrite ?lenN_nil.
    change (lenN (@nil N)) with 0.
    unfold b_ris, b_off. destruct kvs as [|kv0 r].
    - reflexivity.
    - set (l := kv0 :: r).
      replace (0 + lenN l =? 0) with false by (unfold l; rewrite lenN_cons; lia).
      assert (E : enc_restarts ri 0 [] 0 l =
                  map (fun i => lenN (enc_entries ri 0 [] (firstn i l)))
                      (filter (fun j => N.of_nat j mod ri =? 0) (seq 0 (length l)))).
      { rewrite enc_restarts_map.
        rewrite (filter_ext (fun j => (0 + N.of_nat j) mod ri =? 0) (fun j => N.of_nat j mod ri =? 0))
          by (intros j; rewrite N.add_0_l; reflexivity).
        apply map_ext. intros j. lia. }
      rewrite E, lenN_map. reflexivity.
  Qed.

  Lemma b_ris_nonempty : (0 < length b_ris)%nat.
  Proof.
    unfold b_ris. destruct kvs as [|kv0 r]; [cbn; lia|].
    cbn [length seq filter]. change (N.of_nat 0) with 0. rewrite N.mod_0_l by lia.
    cbn [N.eqb length]. lia.
  Qed.

  Lemma b_ris_hd : nth 0 b_ris 0%nat = 0%nat.
  Proof.
    unfold b_ris. destruct kvs as [|kv0 r]; [reflexivity|].
    cbn [length seq filter]. change (N.of_nat 0) with 0. rewrite N.mod_0_l by lia. reflexivity.
  Qed.

  Lemma b_ris_incr : incr_nth b_ris.
  Proof.
    unfold b_ris. destruct kvs as [|kv0 r]; [|apply filter_seq_incr].
    intros i j Hij Hj. cbn in Hj. lia.
  Qed.

  Lemma b_ris_in i : kvs <> [] -> In i b_ris <-> (i < length kvs)%nat /\ N.of_nat i mod ri = 0.
  Proof.
    intros Hne. unfold b_ris. destruct kvs as [|kv0 r] eqn:Ek; [congruence|]. rewrite <- Ek.
    rewrite filter_In, in_seq, N.eqb_eq. lia.
  Qed.

  Lemma b_off_0 : b_off 0 = 0.
  Proof. reflexivity. Qed.

  Lemma b_off_all : b_off (length kvs) = lenN (enc_entries ri 0 [] kvs).
  Proof. unfold b_off. rewrite firstn_all. reflexivity. Qed.

  (* previous key of entry i as the writer holds it *)
  Definition b_pk (i : nat) : bytes := last_key [] (firstn i kvs).

  Lemma b_pk_S i : (i < length kvs)%nat -> b_pk (S i) = key_at kvs i.
  Proof.
    intros H. unfold b_pk. rewrite (ListLemmas.firstn_S_nth kvs i ([], [])) by exact H.
    unfold key_at. destruct (nth i kvs ([], [])) as [k v]. apply last_key_snoc.
  Qed.

  Definition b_nsh (i : nat) : N := nsh_of ri (N.of_nat i) (b_pk i) (key_at kvs i).

  (* the entries area split around entry i *)
  Lemma ents_split i : (i < length kvs)%nat ->
    enc_entries ri 0 [] kvs =
    enc_entries ri 0 [] (firstn i kvs) ++
    enc_entry (b_nsh i) (key_at kvs i) (val_at kvs i) ++
    enc_entries ri (N.of_nat i + 1) (key_at kvs i) (skipn (S i) kvs).
  Proof.
    intros H. rewrite (ListLemmas.split_nth kvs i ([], []) H) at 1.
    rewrite enc_entries_app. f_equal.
    unfold key_at, val_at, b_nsh, b_pk, key_at.
    destruct (nth i kvs ([], [])) as [k v]. cbn [enc_entries fst snd].
    rewrite lenN_firstn by lia. rewrite N.add_0_l. reflexivity.
  Qed.

  Lemma b_off_S i : (i < length kvs)%nat ->
    b_off (S i) = b_off i + lenN (enc_entry (b_nsh i) (key_at kvs i) (val_at kvs i)).
  Proof.
    intros H. unfold b_off. rewrite (ListLemmas.firstn_S_nth kvs i ([], [])) by exact H.
    rewrite enc_entries_app, lenN_app. f_equal.
    unfold key_at, val_at, b_nsh, b_pk, key_at.
    destruct (nth i kvs ([], [])) as [k v]. cbn [enc_entries fst snd].
    rewrite app_nil_r, lenN_firstn by lia. rewrite N.add_0_l. reflexivity.
  Qed.

  Lemma b_off_le_end i : (i <= length kvs)%nat -> b_off i <= lenN (enc_entries ri 0 [] kvs).
  Proof.
    intros H. unfold b_off. rewrite <- (firstn_skipn i kvs) at 2.
    rewrite enc_entries_app, lenN_app. lia.
  Qed.

  Lemma ents_small : lenN (enc_entries ri 0 [] kvs) < 2 ^ 32.
  Proof. rewrite block_build_eq, lenN_app in size_ok. lia. Qed.

  Lemma ris_small : 4 * (lenN b_ris + 1) < 2 ^ 32.
  Proof.
    pose proof size_ok as H. rewrite block_build_eq, lenN_app, lenN_flat_le32, lenN_app, lenN_map in H.
    unfold lenN in *. cbn [length] in H. lia.
  Qed.

  Lemma key_small i : (i < length kvs)%nat -> lenN (key_at kvs i) < 2 ^ 32.
  Proof.
    intros H. pose proof ents_small as Hs.
    pose proof (enc_key_bound ri kvs 0 [] (key_at kvs i) (val_at kvs i)) as Hb.
    rewrite lenN_nil in Hb.
    assert (In (key_at kvs i, val_at kvs i) kvs).
    { unfold key_at, val_at. rewrite <- surjective_pairing. apply nth_In. exact H. }
    specialize (Hb H0). lia.
  Qed.

  Lemma build_split :
    block_build ri kvs =
    (enc_entries ri 0 [] kvs ++ flat_map le32 (map b_off b_ris)) ++ le32 (lenN b_ris).
  Proof.
    rewrite block_build_eq, flat_map_app. cbn [flat_map]. rewrite app_nil_r, app_assoc. reflexivity.
  Qed.

  Lemma build_length :
    lenN (block_build ri kvs) = lenN (enc_entries ri 0 [] kvs) + 4 * (lenN b_ris + 1).
  Proof.
    rewrite build_split, !lenN_app, lenN_flat_le32, lenN_map, lenN_le32. lia.
  Qed.

  Lemma read_block_build : read_block (block_build ri kvs) = Ok built.
  Proof.
    pose proof ris_small as Hr. pose proof build_length as HL.
    unfold read_block.
    replace (lenN (block_build ri kvs) <? 4) with false by lia.
    assert (E : le_decode (dropN (lenN (block_build ri kvs) - 4) (block_build ri kvs)) = lenN b_ris).
    { rewrite build_split at 2.
      replace (lenN (block_build ri kvs) - 4)
        with (lenN (enc_entries ri 0 [] kvs ++ flat_map le32 (map b_off b_ris)))
        by (rewrite lenN_app, lenN_flat_le32, lenN_map; lia).
      rewrite dropN_app. apply le32_decode. lia. }
    rewrite E.
    replace (lenN (block_build ri kvs) <? (lenN b_ris + 1) * 4) with false by lia.
    unfold built. f_equal. f_equal. lia.
  Qed.

  Lemma sliceN_app_r {A} (a x : list A) lo hi :
    sliceN (lenN a + lo) (lenN a + hi) (a ++ x) = sliceN lo hi x.
  Proof.
    unfold sliceN. rewrite dropN_app_ge by lia.
    replace (lenN a + lo - lenN a) with lo by lia.
    replace (lenN a + hi - (lenN a + lo)) with (hi - lo) by lia. reflexivity.
  Qed.

  Lemma built_roff r : (r < length b_ris)%nat ->
    restart_offset built (N.of_nat r) = Some (b_off (nth r b_ris 0%nat)).
  Proof.
    intros Hr. pose proof ris_small as Hs. pose proof build_length as HL. pose proof ents_small as He.
    unfold restart_offset, built. cbn [b_roff b_data].
    assert (Hrl : N.of_nat r < lenN b_ris) by (unfold lenN; lia).
    replace (lenN (block_build ri kvs) <? lenN (enc_entries ri 0 [] kvs) + 4 * N.of_nat r + 4) with false by lia.
    rewrite block_build_eq at 1.
    rewrite <- N.add_assoc, sliceN_app_r.
    rewrite (flat_le32_slice _ r (b_off (nth r b_ris 0%nat))).
    - f_equal. apply le32_decode.
      assert (b_off (nth r b_ris 0%nat) <= lenN (enc_entries ri 0 [] kvs)); [|lia].
      destruct (Nat.le_gt_cases (nth r b_ris 0%nat) (length kvs)) as [L|L].
      + apply b_off_le_end. exact L.
      + unfold b_off. rewrite firstn_all2 by lia. lia.
    - rewrite nth_error_app1 by (rewrite map_length; exact Hr).
      rewrite (nth_error_nth' (map b_off b_ris) 0) by (rewrite map_length; exact Hr).
      f_equal. change 0 with (b_off 0) at 1. apply map_nth.
  Qed.

  Lemma built_entry i : (i < length kvs)%nat ->
    block_entry built (b_off i) =
    EntOk (dropN (b_nsh i) (key_at kvs i)) (val_at kvs i) (b_nsh i) (b_off (S i) - b_off i).
  Proof.
    intros H. pose proof ents_small as He. pose proof (key_small i H) as Hk.
    assert (B : 2 ^ 32 < 2 ^ 63) by (apply N.pow_lt_mono_r; lia).
    rewrite (b_off_S i H).
    replace (b_off i + lenN (enc_entry (b_nsh i) (key_at kvs i) (val_at kvs i)) - b_off i)
      with (lenN (enc_entry (b_nsh i) (key_at kvs i) (val_at kvs i))) by lia.
    unfold built. rewrite block_build_eq. rewrite (ents_split i H) at 1.
    rewrite <- !app_assoc. unfold b_off at 1.
    apply block_entry_at.
    - apply nsh_of_le.
    - lia.
    - pose proof (b_off_S i H) as E1. pose proof (b_off_le_end (S i) H) as E2.
      unfold b_off in E1 at 2. lia.
    - lia.
  Qed.

  Lemma built_read i pk : (i < length kvs)%nat ->
    (In i b_ris \/ (0 < i)%nat /\ pk = key_at kvs (i - 1)) ->
    bi_read built pk (b_off i) = RdOk (key_at kvs i) (val_at kvs i) (b_off (S i) - b_off i).
  Proof.
    intros H Hc. unfold bi_read. rewrite (built_entry i H).
    assert (Hne : kvs <> []) by (destruct kvs; cbn in H; [lia | discriminate]).
    destruct Hc as [Hin | [Hpos ->]].
    - apply (b_ris_in i Hne) in Hin as [_ Hm].
      assert (E : b_nsh i = 0) by (unfold b_nsh, nsh_of; rewrite Hm; reflexivity).
      rewrite E. replace (lenN pk <? 0) with false by lia. reflexivity.
    - assert (Epk : key_at kvs (i - 1) = b_pk i).
      { replace i with (S (i - 1)) at 2 by lia. symmetry. apply b_pk_S. lia. }
      rewrite Epk.
      assert (Hle : b_nsh i <= lenN (b_pk i)).
      { unfold b_nsh, nsh_of. destruct (N.of_nat i mod ri =? 0); [lia | apply spl_le_l]. }
      replace (lenN (b_pk i) <? b_nsh i) with false by lia.
      rewrite rebuild_key by (apply nsh_of_cases). reflexivity.
  Qed.

  Lemma put_uvarint_0 : put_uvarint 0 = [0].
  Proof. reflexivity. Qed.

  Lemma built_rkey r : (r < length b_ris)%nat ->
    exists k, restart_key built (N.of_nat r) = Some k /\ (kvs <> [] -> k = key_at kvs (nth r b_ris 0%nat)).
  Proof.
    intros Hr. destruct kvs as [|kv0 l] eqn:Ek.
    - (* the empty block is the constant 0,0,0,0,1,0,0,0 *)
      assert (r = 0%nat) by (unfold b_ris in Hr; rewrite Ek in Hr; cbn in Hr; lia). subst r.
      eexists. split; [|congruence].
      unfold built, b_ris. rewrite Ek. vm_compute. reflexivity.
    - rewrite <- Ek in *. assert (Hne : kvs <> []) by (rewrite Ek; discriminate).
      set (i := nth r b_ris 0%nat).
      assert (Hin : In i b_ris) by (apply nth_In; exact Hr).
      apply (b_ris_in i Hne) in Hin as [Hi Hm].
      exists (key_at kvs i). split; [|reflexivity].
      pose proof ents_small as He. pose proof (key_small i Hi) as Hk.
      assert (B : 2 ^ 32 < 2 ^ 64) by (apply N.pow_lt_mono_r; lia).
      unfold restart_key. rewrite (built_roff r Hr). fold i.
      assert (E : b_nsh i = 0) by (unfold b_nsh, nsh_of; rewrite Hm; reflexivity).
      set (k := key_at kvs i). set (v := val_at kvs i).
      set (pre := enc_entries ri 0 [] (firstn i kvs)).
      set (p1 := put_uvarint (lenN k)). set (p2 := put_uvarint (lenN v)).
      assert (D : exists post, b_data built = pre ++ [0] ++ p1 ++ p2 ++ k ++ v ++ post).
      { unfold built. cbn [b_data]. rewrite block_build_eq, (ents_split i Hi).
        fold k v pre. rewrite E. unfold enc_entry. rewrite put_uvarint_0, N.sub_0_r, dropN_0.
        fold p1 p2. rewrite <- !app_assoc. eexists. reflexivity. }
      destruct D as [post D]. rewrite D.
      assert (Lv : lenN v < 2 ^ 32).
      { pose proof (b_off_S i Hi) as E1. pose proof (b_off_le_end (S i) Hi) as E2.
        pose proof (enc_entry_length (b_nsh i) k v) as E3.
        fold k v in E1. lia. }
      replace (b_off i) with (lenN pre) by reflexivity.
      assert (Lk : lenN k < 2 ^ 32) by exact Hk.
      destruct (entry_parts pre 0 (lenN k) (lenN v) k v post) as (_ & E1 & E2 & Sk & _); [lia | lia | lia |].
      rewrite put_uvarint_0 in E1, E2, Sk. change (lenN [0]) with 1 in E1, E2, Sk. fold p1 p2 in E1, E2, Sk.
      set (data := pre ++ [0] ++ p1 ++ p2 ++ k ++ v ++ post) in *.
      assert (L : lenN data = lenN pre + 1 + lenN p1 + lenN p2 + lenN k + lenN v + lenN post).
      { unfold data. rewrite !lenN_app. change (lenN [0]) with 1. lia. }
      replace (lenN data <? lenN pre + 1) with false by lia.
      rewrite E1, E2.
      replace (lenN data <? lenN pre + 1 + lenN p1 + lenN p2 + lenN k) with false by lia.
      f_equal. exact Sk.
  Qed.

  Lemma built_count : restart_offset built (lenN b_ris) = Some (lenN b_ris).
  Proof.
    pose proof ris_small as Hs. pose proof build_length as HL.
    unfold restart_offset, built. cbn [b_roff b_data].
    replace (lenN (block_build ri kvs) <? lenN (enc_entries ri 0 [] kvs) + 4 * lenN b_ris + 4) with false by lia.
    rewrite block_build_eq at 1.
    rewrite <- N.add_assoc, sliceN_app_r.
    unfold lenN at 1 2. rewrite (flat_le32_slice _ (length b_ris) (lenN b_ris)).
    - f_equal. apply le32_decode. lia.
    - rewrite nth_error_app2 by (rewrite map_length; lia). rewrite map_length, Nat.sub_diag. reflexivity.
  Qed.

  Theorem build_layout : block_layout kvs built b_off b_ris.
  Proof.
    constructor.
    - apply b_off_0.
    - intros i H. rewrite (b_off_S i H). pose proof (enc_entry_length_ge3 (b_nsh i) (key_at kvs i) (val_at kvs i)). lia.
    - apply b_off_all.
    - unfold built. cbn [b_roff b_data]. rewrite build_length. lia.
    - apply built_read.
    - reflexivity.
    - apply b_ris_hd.
    - apply b_ris_nonempty.
    - intros E. unfold b_ris. rewrite E. reflexivity.
    - apply b_ris_incr.
    - intros Hne r Hr. apply (b_ris_in _ Hne). apply nth_In. exact Hr.
    - apply built_roff.
    - apply built_rkey.
    - apply built_count.
  Qed.
End Build.
