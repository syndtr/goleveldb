(* Codec/SessionRecordBuildProofs.v — decoding into a record that already holds fields (the one record
   session.recover reuses) against decoding into a fresh one ([carry]); levels of decoded records are
   non-negative; the record the setters build from field values and its round trip; the canonical codec for the
   edits of Store/Crash.v. *)
From GL Require Import Codec.SessionRecordSpec Codec.SessionRecordProofs Codec.SessionRecordCutProofs
  Store.Crash.
From Coq Require Import Lia.
Open Scope N_scope.

Section Build.
  Variable p : rparams.
  Hypothesis pok : rparams_ok p.

  (* the fields of r laid over r0 *)
  Definition carry (r0 r : srec) : srec :=
    mksr (N.lor (sr_has r0) (sr_has r))
         (if has r (tComparer p) then sr_comparer r else sr_comparer r0)
         (if has r (tJournalNum p) then sr_journal r else sr_journal r0)
         (if has r (tPrevJournalNum p) then sr_prevjournal r else sr_prevjournal r0)
         (if has r (tNextFileNum p) then sr_nextfile r else sr_nextfile r0)
         (if has r (tSeqNum p) then sr_seq r else sr_seq r0)
         (sr_cps r0 ++ sr_cps r) (sr_adds r0 ++ sr_adds r) (sr_dels r0 ++ sr_dels r).

  Lemma setbit_lor a b t : N.setbit (N.lor a b) t = N.lor a (N.setbit b t).
  Proof.
    apply N.bits_inj. intros m. rewrite N.setbit_eqb, !N.lor_spec, N.setbit_eqb.
    destruct (t =? m), (N.testbit a m), (N.testbit b m); reflexivity.
  Qed.

  Lemma carry_empty r0 : carry r0 sr_empty = r0.
  Proof.
    unfold carry, has. cbn [sr_empty sr_has sr_comparer sr_journal sr_prevjournal sr_nextfile sr_seq sr_cps sr_adds sr_dels].
    rewrite !N.bits_0, N.lor_0_r, !app_nil_r. destruct r0; reflexivity.
  Qed.

  Lemma carry_apply_item r0 r it : apply_item p (carry r0 r) it = carry r0 (apply_item p r it).
  Proof.
    destruct it; unfold carry, has, apply_item, set_comparer, set_journal, set_prevjournal, set_nextfile, set_seq,
      add_comp_ptr, add_table, del_table;
      cbn [sr_has sr_comparer sr_journal sr_prevjournal sr_nextfile sr_seq sr_cps sr_adds sr_dels];
      rewrite setbit_lor, !N.setbit_eqb; tags_by_position p; rewrite !(tags_eqb p) by (try exact pok; lia);
      cbn [Nat.eqb orb]; rewrite ?app_assoc; reflexivity.
  Qed.

  Lemma decode_field_carry tag r0 r buf :
    match decode_field p tag r buf with
    | ROk r' rest => decode_field p tag (carry r0 r) buf = ROk (carry r0 r') rest
    | RErr e => decode_field p tag (carry r0 r) buf = RErr e
    | RPanic => True
    end.
  Proof.
    rewrite !decode_field_read. destruct (read_kind (tag_ix p tag) buf) as [[it|] rest|e|]; cbn [rbind store];
      try reflexivity; try exact I.
    rewrite carry_apply_item. reflexivity.
  Qed.

  Lemma decode_carry_from r0 : forall r b,
    match decode p r b with
    | DOk r' => decode p (carry r0 r) b = DOk (carry r0 r')
    | DErr e r' => decode p (carry r0 r) b = DErr e (carry r0 r')
    | _ => True
    end.
  Proof.
    apply (decode_rounds p). intros r b IH. rewrite (decode_unfold p (carry r0 r)), (decode_unfold p r).
    destruct (read_uv_may_eof FHeader true b) as [tag rest|e|]; [|destruct e; reflexivity|exact I].
    pose proof (decode_field_carry tag r0 r rest) as F.
    destruct (decode_field p tag r rest) as [r' rest'|e|] eqn:E; rewrite ?F; try reflexivity; try exact I.
    apply (IH tag rest r' rest' eq_refl E).
  Qed.

  (* decoding a record's bytes into the reused record = decoding them into a fresh record and laying the result
     over the reused one; same error at the same field otherwise *)
  Theorem decode_carry r0 b :
    match decode p sr_empty b with
    | DOk r => decode p r0 b = DOk (carry r0 r)
    | DErr e r => decode p r0 b = DErr e (carry r0 r)
    | _ => True
    end.
  Proof. pose proof (decode_carry_from r0 sr_empty b) as H. rewrite carry_empty in H. exact H. Qed.

  (* levels of a decoded record are indexes *)
  Definition lv_ok (r : srec) : Prop :=
    Forall (fun c => (0 <= cp_level c)%Z) (sr_cps r) /\ Forall (fun t => (0 <= at_level t)%Z) (sr_adds r) /\
    Forall (fun d => (0 <= dt_level d)%Z) (sr_dels r).

  Lemma Forall_snoc {A} (P : A -> Prop) l x : Forall P l -> P x -> Forall P (l ++ [x]).
  Proof. intros H Hx. apply Forall_app. split; [exact H|]. constructor; [exact Hx|constructor]. Qed.

  Definition item_lv (it : item) : Prop :=
    match it with
    | ICompPtr c => (0 <= cp_level c)%Z | IDel d => (0 <= dt_level d)%Z | IAdd t => (0 <= at_level t)%Z
    | _ => True
    end.

  Lemma read_kind_lv k buf it rest : read_kind k buf = ROk (Some it) rest -> item_lv it.
  Proof.
    do 8 (try destruct k as [|k]); cbn [read_kind];
      repeat match goal with
             | |- context [rbind (read_level ?f ?b) _] =>
                 let E := fresh "E" in destruct (read_level f b) as [? ?|?|] eqn:E; cbn [rbind];
                 [apply read_level_range in E|..]
             | |- context [rbind (?R ?f ?b) _] => destruct (R f b) as [? ?|?|]; cbn [rbind]
             end; try discriminate; intros H; injection H as <- _; cbn [item_lv cp_level dt_level at_level];
      first [assumption|exact I].
  Qed.

  Lemma apply_item_lv r it : lv_ok r -> item_lv it -> lv_ok (apply_item p r it).
  Proof.
    intros (Hc & Ha & Hd) Hi. destruct it; unfold lv_ok;
      cbn [apply_item set_comparer set_journal set_prevjournal set_nextfile set_seq add_comp_ptr add_table del_table
           sr_cps sr_adds sr_dels]; repeat split; try assumption; apply Forall_snoc; assumption.
  Qed.

  Lemma decode_field_lv tag r buf r' rest : lv_ok r -> decode_field p tag r buf = ROk r' rest -> lv_ok r'.
  Proof.
    intros Hr. rewrite decode_field_read.
    destruct (read_kind (tag_ix p tag) buf) as [[it|] rest0|e|] eqn:E; cbn [rbind store]; try discriminate;
      intros H; injection H as <- _; [|exact Hr].
    apply apply_item_lv; [exact Hr|]. exact (read_kind_lv _ _ _ _ E).
  Qed.

  Lemma decode_lv_err : forall r b, lv_ok r -> match decode p r b with DOk r' | DErr _ r' => lv_ok r' | _ => True end.
  Proof.
    apply (decode_rounds p (fun r b => lv_ok r -> match decode p r b with DOk r' | DErr _ r' => lv_ok r' | _ => True end)).
    intros r b IH H. rewrite decode_unfold.
    destruct (read_uv_may_eof FHeader true b) as [tag rest|e|]; [|destruct e; exact H|exact I].
    destruct (decode_field p tag r rest) as [r' rest'|e|] eqn:E; [|exact H|exact I].
    apply (IH tag rest r' rest' eq_refl E). exact (decode_field_lv tag r rest r' rest' H E).
  Qed.

  Lemma decode_lv r b r' : lv_ok r -> decode p r b = DOk r' -> lv_ok r'.
  Proof. intros H E. pose proof (decode_lv_err r b H) as L. rewrite E in L. exact L. Qed.

  Lemma lv_ok_empty : lv_ok sr_empty.
  Proof. repeat split; constructor. Qed.

  Definition cbit (c : bool) (t a : N) : N := if c then N.setbit a t else a.
  Definition nonempty {A} (l : list A) : bool := match l with [] => false | _ => true end.

  Lemma testbit_cbit c t a m : N.testbit (cbit c t a) m = (c && (t =? m)) || N.testbit a m.
  Proof. destruct c; cbn [cbit andb orb]; [apply N.setbit_eqb|reflexivity]. Qed.

  Lemma setbit_idem a t : N.setbit (N.setbit a t) t = N.setbit a t.
  Proof.
    apply N.bits_inj. intros m. rewrite !N.setbit_eqb. destruct (t =? m), (N.testbit a m); reflexivity.
  Qed.

  Lemma apply_cps l : forall r, apply_items p r (map ICompPtr l) =
    mksr (cbit (nonempty l) (tCompPtr p) (sr_has r)) (sr_comparer r) (sr_journal r) (sr_prevjournal r)
         (sr_nextfile r) (sr_seq r) (sr_cps r ++ l) (sr_adds r) (sr_dels r).
  Proof.
    induction l as [|c l IH]; intros r; cbn [map apply_items fold_left nonempty cbit].
    - rewrite app_nil_r. destruct r; reflexivity.
    - fold (apply_items p (apply_item p r (ICompPtr c)) (map ICompPtr l)). rewrite IH.
      cbn [apply_item add_comp_ptr sr_has sr_comparer sr_journal sr_prevjournal sr_nextfile sr_seq sr_cps sr_adds sr_dels].
      rewrite <- app_assoc. cbn [app]. destruct l; cbn [nonempty cbit]; rewrite ?setbit_idem; reflexivity.
  Qed.

  Lemma apply_dels l : forall r, apply_items p r (map IDel l) =
    mksr (cbit (nonempty l) (tDelTable p) (sr_has r)) (sr_comparer r) (sr_journal r) (sr_prevjournal r)
         (sr_nextfile r) (sr_seq r) (sr_cps r) (sr_adds r) (sr_dels r ++ l).
  Proof.
    induction l as [|c l IH]; intros r; cbn [map apply_items fold_left nonempty cbit].
    - rewrite app_nil_r. destruct r; reflexivity.
    - fold (apply_items p (apply_item p r (IDel c)) (map IDel l)). rewrite IH.
      cbn [apply_item del_table sr_has sr_comparer sr_journal sr_prevjournal sr_nextfile sr_seq sr_cps sr_adds sr_dels].
      rewrite <- app_assoc. cbn [app]. destruct l; cbn [nonempty cbit]; rewrite ?setbit_idem; reflexivity.
  Qed.

  Lemma apply_adds l : forall r, apply_items p r (map IAdd l) =
    mksr (cbit (nonempty l) (tAddTable p) (sr_has r)) (sr_comparer r) (sr_journal r) (sr_prevjournal r)
         (sr_nextfile r) (sr_seq r) (sr_cps r) (sr_adds r ++ l) (sr_dels r).
  Proof.
    induction l as [|c l IH]; intros r; cbn [map apply_items fold_left nonempty cbit].
    - rewrite app_nil_r. destruct r; reflexivity.
    - fold (apply_items p (apply_item p r (IAdd c)) (map IAdd l)). rewrite IH.
      cbn [apply_item add_table sr_has sr_comparer sr_journal sr_prevjournal sr_nextfile sr_seq sr_cps sr_adds sr_dels].
      rewrite <- app_assoc. cbn [app]. destruct l; cbn [nonempty cbit]; rewrite ?setbit_idem; reflexivity.
  Qed.

  Lemma apply_items_app r a b : apply_items p r (a ++ b) = apply_items p (apply_items p r a) b.
  Proof. unfold apply_items. apply fold_left_app. Qed.

  Definition is_some {A} (o : option A) : bool := match o with Some _ => true | None => false end.
  Definition odflt {A} (o : option A) (d : A) : A := match o with Some a => a | None => d end.

  Lemma apply_scalars oc oj on oq more :
    apply_items p sr_empty (oitem IComparer oc ++ oitem IJournal oj ++ oitem INextFile on ++ oitem ISeq oq ++ more) =
    apply_items p
      (mksr (cbit (is_some oq) (tSeqNum p) (cbit (is_some on) (tNextFileNum p)
               (cbit (is_some oj) (tJournalNum p) (cbit (is_some oc) (tComparer p) 0))))
            (odflt oc []) (odflt oj 0%Z) 0%Z (odflt on 0%Z) (odflt oq 0) [] [] []) more.
  Proof. destruct oc, oj, on, oq; reflexivity. Qed.

  (* build f, written out *)
  Lemma build_closed f : build p f =
    mksr (cbit (nonempty (f_adds f)) (tAddTable p) (cbit (nonempty (f_dels f)) (tDelTable p)
            (cbit (nonempty (f_cps f)) (tCompPtr p)
               (cbit (is_some (f_seq f)) (tSeqNum p) (cbit (is_some (f_nextfile f)) (tNextFileNum p)
                  (cbit (is_some (f_journal f)) (tJournalNum p) (cbit (is_some (f_comparer f)) (tComparer p) 0)))))))
         (odflt (f_comparer f) []) (odflt (f_journal f) 0%Z) 0%Z (odflt (f_nextfile f) 0%Z) (odflt (f_seq f) 0)
         (f_cps f) (f_adds f) (f_dels f).
  Proof.
    unfold build, items_of_fields. rewrite apply_scalars, !apply_items_app, apply_cps.
    cbn [sr_has sr_comparer sr_journal sr_prevjournal sr_nextfile sr_seq sr_cps sr_adds sr_dels]. rewrite apply_dels.
    cbn [sr_has sr_comparer sr_journal sr_prevjournal sr_nextfile sr_seq sr_cps sr_adds sr_dels]. rewrite apply_adds.
    reflexivity.
  Qed.

  Lemma has_build f t : has (build p f) t =
    (nonempty (f_adds f) && (tAddTable p =? t)) || ((nonempty (f_dels f) && (tDelTable p =? t)) ||
    ((nonempty (f_cps f) && (tCompPtr p =? t)) || ((is_some (f_seq f) && (tSeqNum p =? t)) ||
    ((is_some (f_nextfile f) && (tNextFileNum p =? t)) || ((is_some (f_journal f) && (tJournalNum p =? t)) ||
    (is_some (f_comparer f) && (tComparer p =? t))))))).
  Proof.
    rewrite build_closed. unfold has. cbn [sr_has]. rewrite !testbit_cbit, N.bits_0, orb_false_r. reflexivity.
  Qed.

  Lemma has_build_at f j : (j < 8)%nat ->
    has (build p f) (nth j (tags p) 0) =
    nth j [is_some (f_comparer f); is_some (f_journal f); is_some (f_nextfile f); is_some (f_seq f);
           nonempty (f_cps f); nonempty (f_dels f); nonempty (f_adds f)] false.
  Proof.
    intros Hj. rewrite has_build. tags_by_position p. rewrite !(tags_eqb p) by (try exact pok; lia).
    do 8 (destruct j as [|j]; [cbn [Nat.eqb nth]; rewrite ?andb_false_r, ?andb_true_r, ?orb_false_r; reflexivity|]).
    lia.
  Qed.

  Lemma has_build_comparer f : has (build p f) (tComparer p) = is_some (f_comparer f).
  Proof. apply (has_build_at f 0). lia. Qed.
  Lemma has_build_journal f : has (build p f) (tJournalNum p) = is_some (f_journal f).
  Proof. apply (has_build_at f 1). lia. Qed.
  Lemma has_build_nextfile f : has (build p f) (tNextFileNum p) = is_some (f_nextfile f).
  Proof. apply (has_build_at f 2). lia. Qed.
  Lemma has_build_seq f : has (build p f) (tSeqNum p) = is_some (f_seq f).
  Proof. apply (has_build_at f 3). lia. Qed.
  Lemma has_build_prev f : has (build p f) (tPrevJournalNum p) = false.
  Proof. apply (has_build_at f 7). lia. Qed.

  (* encode writes exactly the fields the record was built from *)
  Lemma items_of_build f : items_of p (build p f) = items_of_fields f.
  Proof.
    unfold items_of. rewrite has_build_comparer, has_build_journal, has_build_nextfile, has_build_seq.
    rewrite build_closed. cbn [sr_comparer sr_journal sr_nextfile sr_seq sr_cps sr_adds sr_dels].
    unfold items_of_fields. destruct (f_comparer f), (f_journal f), (f_nextfile f), (f_seq f); reflexivity.
  Qed.

  (* decode . encode = id on every record the setters build from in-range field values *)
  Theorem build_roundtrip f : fields_ok f ->
    exists b, encode p (build p f) = Some b /\ decode p sr_empty b = DOk (build p f).
  Proof.
    intros H. assert (R : rec_ok p (build p f)) by (unfold rec_ok; rewrite items_of_build; exact H).
    destruct (record_roundtrip p pok (build p f) R) as (b & E & D). exists b. split; [exact E|].
    rewrite D, items_of_build. reflexivity.
  Qed.

  (* the canonical codec for the edits of Store/Crash.v *)
  Lemma medit_fields_ok e : medit_ok e -> fields_ok (fields_of_medit e).
  Proof.
    intros (Hj & Hq & Ht). unfold fields_ok, items_of_fields, fields_of_medit.
    cbn [f_comparer f_journal f_nextfile f_seq f_cps f_dels f_adds oitem map app].
    apply Forall_app. split.
    - destruct (m_jnum e) as [j|]; cbn [option_map oitem]; [|constructor].
      constructor; [|constructor]. cbn [item_ok]. specialize (Hj j eq_refl). unfold z_in63, sr_two63 in *. lia.
    - apply Forall_app. split.
      + destruct (m_seq e) as [q|]; cbn [oitem]; [|constructor]. constructor; [|constructor]. apply Hq. reflexivity.
      + apply Forall_forall. intros it Hit. apply in_map_iff in Hit as (t & <- & Ht').
        apply in_map_iff in Ht' as (b & <- & Hb). rewrite Forall_forall in Ht. destruct (Ht b Hb) as [H1 H2].
        cbn [item_ok table_of_batch at_level at_num at_size at_imin at_imax].
        unfold z_in63, len_ok, sr_two63, sr_two64 in *. cbn [lenN length]. repeat split; lia.
  Qed.

  Theorem medit_roundtrip e : medit_ok e -> dec_medit p (enc_medit p e) = Some e.
  Proof.
    intros H. destruct (build_roundtrip _ (medit_fields_ok e H)) as (b & E & D).
    unfold enc_medit, dec_medit, decode_fresh. rewrite E, D. cbn [option_map]. f_equal.
    unfold medit_of. rewrite has_build_journal, has_build_seq, build_closed.
    cbn [sr_journal sr_seq sr_adds fields_of_medit f_journal f_seq f_adds].
    destruct e as [oj oq tabs]. cbn [m_jnum m_seq m_tab]. f_equal.
    - destruct oj; cbn [option_map is_some odflt]; [rewrite N2Z.id|]; reflexivity.
    - destruct oq; reflexivity.
    - clear. induction tabs as [|x tabs IH]; [reflexivity|]. cbn [map flat_map]. rewrite IH.
      unfold batch_of_table, table_of_batch. cbn [at_num at_size app]. rewrite !N2Z.id. destruct x; reflexivity.
  Qed.
End Build.
