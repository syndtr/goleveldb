(* Codec/JournalLemmas.v — list / index arithmetic lemmas shared by the journal proofs. *)
From GL Require Import Base.BytesProofs Codec.Journal.
From GL Require Base.VarintProofs.
From Coq Require Import Lia.

Ltac nl := unfold lenN, takeN, dropN in *.

Lemma hs7 p : jparams_ok p -> hs p = 7.
Proof. intros pok. apply pok. Qed.
Lemma hs_lt_bs p : jparams_ok p -> hs p < bs p.
Proof. intros pok. apply pok. Qed.

(* lenN, takeN and dropN of Codec/Journal.v have the bodies of their namesakes in Base/Varint.v: what
   Base/VarintProofs.v proves of those holds of these as it stands (the `exact (VarintProofs.x ..)` below) *)
Lemma lenN_nil {A} : lenN (@nil A) = 0.
Proof. exact (@VarintProofs.lenN_nil A). Qed.

Lemma lenN_cons {A} (x : A) l : lenN (x :: l) = 1 + lenN l.
Proof. exact (VarintProofs.lenN_cons x l). Qed.

Lemma lenN_app {A} (a b : list A) : lenN (a ++ b) = lenN a + lenN b.
Proof. exact (VarintProofs.lenN_app a b). Qed.

Lemma lenN_takeN {A} n (l : list A) : lenN (takeN n l) = N.min n (lenN l).
Proof. nl. rewrite firstn_length. lia. Qed.

Lemma lenN_dropN {A} n (l : list A) : lenN (dropN n l) = lenN l - n.
Proof. exact (VarintProofs.lenN_dropN n l). Qed.

Lemma lenN_zeros n : lenN (zeros n) = n.
Proof. unfold lenN, zeros. rewrite repeat_length. lia. Qed.

Lemma lenN_le_encode k x : lenN (le_encode k x) = N.of_nat k.
Proof. unfold lenN. now rewrite le_encode_length. Qed.

Lemma lenN_0 {A} (l : list A) : lenN l = 0 -> l = [].
Proof. exact (VarintProofs.lenN_0 l). Qed.

Lemma takeN_0 {A} (l : list A) : takeN 0 l = [].
Proof. exact (VarintProofs.takeN_0 l). Qed.

Lemma dropN_0 {A} (l : list A) : dropN 0 l = l.
Proof. exact (VarintProofs.dropN_0 l). Qed.

Lemma takeN_all {A} n (l : list A) : lenN l <= n -> takeN n l = l.
Proof. exact (VarintProofs.takeN_all n l). Qed.

Lemma dropN_all {A} n (l : list A) : lenN l <= n -> dropN n l = [].
Proof. exact (VarintProofs.dropN_all n l). Qed.

Lemma firstn_takeN {A} n (l : list A) : firstn n l = takeN (N.of_nat n) l.
Proof. unfold takeN. rewrite Nat2N.id. reflexivity. Qed.

Lemma takeN_dropN {A} n (l : list A) : takeN n l ++ dropN n l = l.
Proof. exact (VarintProofs.takeN_dropN n l). Qed.

Lemma takeN_app_exact {A} n (a b : list A) : lenN a = n -> takeN n (a ++ b) = a.
Proof. intros <-. exact (VarintProofs.takeN_app a b). Qed.

Lemma dropN_app_exact {A} n (a b : list A) : lenN a = n -> dropN n (a ++ b) = b.
Proof. intros <-. exact (VarintProofs.dropN_app a b). Qed.

Lemma takeN_app_le {A} n (a b : list A) : n <= lenN a -> takeN n (a ++ b) = takeN n a.
Proof. exact (VarintProofs.takeN_app_le n a b). Qed.

Lemma dropN_app_le {A} n (a b : list A) : n <= lenN a -> dropN n (a ++ b) = dropN n a ++ b.
Proof. exact (VarintProofs.dropN_app_le n a b). Qed.

Lemma takeN_app_ge {A} n (a b : list A) : lenN a <= n -> takeN n (a ++ b) = a ++ takeN (n - lenN a) b.
Proof. exact (VarintProofs.takeN_app_ge n a b). Qed.

Lemma dropN_app_ge {A} n (a b : list A) : lenN a <= n -> dropN n (a ++ b) = dropN (n - lenN a) b.
Proof. exact (VarintProofs.dropN_app_ge n a b). Qed.

Lemma dropN_dropN {A} a b (l : list A) : dropN a (dropN b l) = dropN (a + b) l.
Proof. rewrite N.add_comm. exact (VarintProofs.dropN_dropN a b l). Qed.

Lemma takeN_takeN {A} a b (l : list A) : takeN a (takeN b l) = takeN (N.min a b) l.
Proof. nl. rewrite firstn_firstn. f_equal. lia. Qed.

Lemma dropN_takeN {A} a b (l : list A) : dropN a (takeN b l) = takeN (b - a) (dropN a l).
Proof. nl. rewrite skipn_firstn_comm. f_equal. lia. Qed.

(* a window that lies inside the first n elements does not see the rest *)
Lemma window_prefix {A} n a b (l : list A) :
  b <= n -> takeN (b - a) (dropN a (takeN n l)) = takeN (b - a) (dropN a l).
Proof.
  intros. rewrite dropN_takeN, takeN_takeN. f_equal. lia.
Qed.

Lemma takeN_succ_cons {A} n (x : A) l : takeN (n + 1) (x :: l) = x :: takeN n l.
Proof. unfold takeN. replace (N.to_nat (n + 1)) with (S (N.to_nat n)) by lia. reflexivity. Qed.

Lemma takeN_header c4 c2 t (d : list N) n : lenN c4 = 4 -> lenN c2 = 2 -> 7 <= n ->
  takeN n (c4 ++ c2 ++ t :: d) = c4 ++ c2 ++ t :: takeN (n - 7) d.
Proof.
  intros L4 L2 Hn. rewrite takeN_app_ge by lia. f_equal. rewrite takeN_app_ge by lia. f_equal.
  rewrite L4, L2. replace (n - 4 - 2) with ((n - 7) + 1) by lia. apply takeN_succ_cons.
Qed.

Lemma takeN_succ_nth {A} (d : A) n (l : list A) :
  n < lenN l -> takeN (n + 1) l = takeN n l ++ [nth (N.to_nat n) l d].
Proof.
  nl. intros H. replace (N.to_nat (n + 1)) with (S (N.to_nat n)) by lia.
  remember (N.to_nat n) as k. assert (Hk : (k < length l)%nat) by lia. clear - Hk.
  revert l Hk; induction k as [|k IH]; intros [|x l] Hk; cbn [length] in *; try lia.
  - reflexivity.
  - cbn [firstn nth app]. f_equal. apply IH. lia.
Qed.

Lemma nth_dropN {A} (d : A) a k (l : list A) : nth k (dropN a l) d = nth (N.to_nat a + k) l d.
Proof.
  nl. remember (N.to_nat a) as m. clear. revert l; induction m as [|m IH]; intros l; [reflexivity|].
  destruct l as [|x l]; cbn [skipn plus].
  - destruct k; reflexivity.
  - cbn [nth]. apply IH.
Qed.

Lemma cons_takeN_dropN {A} (d : A) k n (l : list A) :
  k < lenN l -> nth (N.to_nat k) l d :: takeN n (dropN (k + 1) l) = takeN (n + 1) (dropN k l).
Proof.
  nl. intros H. replace (N.to_nat (n + 1)) with (S (N.to_nat n)) by lia.
  replace (N.to_nat (k + 1)) with (S (N.to_nat k)) by lia.
  remember (N.to_nat k) as m. assert (Hm : (m < length l)%nat) by lia. clear - Hm.
  revert l Hm; induction m as [|m IH]; intros [|x l] Hm; cbn [length] in *; try lia.
  - reflexivity.
  - cbn [skipn nth]. apply IH. lia.
Qed.

Lemma slice_some buf a b :
  a <= b -> b <= lenN buf -> slice buf a b = Some (takeN (b - a) (dropN a buf)).
Proof.
  intros H1 H2. unfold slice.
  replace (a <=? b) with true by lia. replace (b <=? lenN buf) with true by lia. reflexivity.
Qed.

Lemma slice_len buf a b d : slice buf a b = Some d -> a <= b /\ b <= lenN buf /\ lenN d = b - a.
Proof.
  unfold slice. destruct (a <=? b) eqn:E1; [|discriminate]. destruct (b <=? lenN buf) eqn:E2; [|discriminate].
  cbn. intros [= <-]. rewrite lenN_takeN, lenN_dropN. lia.
Qed.

Lemma index_some (d : N) buf a : a < lenN buf -> index buf a = Some (nth (N.to_nat a) buf d).
Proof. intros. unfold index. apply nth_error_nth'. unfold lenN in *. lia. Qed.

Lemma lenN_put buf pos d : pos + lenN d <= lenN buf -> lenN (put buf pos d) = lenN buf.
Proof.
  intros. unfold put. rewrite !lenN_app, lenN_takeN, lenN_dropN. lia.
Qed.

Lemma concat_firstn_mono {A} (l : list (list A)) : forall a b, (a <= b)%nat ->
  (length (concat (firstn a l)) <= length (concat (firstn b l)))%nat.
Proof.
  induction l as [|x l IH]; intros a b Hab; [rewrite !firstn_nil; lia|].
  destruct a as [|a]; [cbn; lia|]. destruct b as [|b]; [lia|].
  cbn [firstn concat]. rewrite !app_length. specialize (IH a b ltac:(lia)). lia.
Qed.
