(* Codec/JournalWriterProofs.v — the writer model computes the rendering of the layout:
     jwrite_res fl rs = WOk s  with  w_out s = render_lay (layout rs)
   for every record list and every flush pattern (so the writer never panics, never runs out
   of fuel, and its output does not depend on where Flush is called). *)
From GL Require Import Codec.JournalSpec Codec.JournalLemmas Codec.JournalLayoutProofs.
From Coq Require Import Lia.

Section WriterProofs.
  Variable crc : bytes -> N.
  Variable p : jparams.
  Hypothesis pok : jparams_ok p.

  Lemma lenN_render_chunk c : lenN (render_chunk crc c) = csize p c.
  Proof.
    unfold render_chunk, csize. rewrite !lenN_app, !lenN_le_encode, lenN_cons, lenN_nil.
    rewrite (hs7 p pok). lia.
  Qed.

  Lemma lenN_render_chunks cs : lenN (render_chunks crc cs) = bsize p cs.
  Proof.
    induction cs as [|c cs IH]; [reflexivity|].
    unfold render_chunks in *. cbn [flat_map bsize]. rewrite lenN_app, lenN_render_chunk, IH. reflexivity.
  Qed.

  Lemma render_chunks_app a b :
    render_chunks crc (a ++ b) = render_chunks crc a ++ render_chunks crc b.
  Proof. unfold render_chunks. apply flat_map_app. Qed.

  Lemma bsize_app a b : bsize p (a ++ b) = bsize p a + bsize p b.
  Proof. induction a as [|c a IH]; cbn [app bsize]; [reflexivity|]. rewrite IH. lia. Qed.

  (* overwriting a segment of a list given as a concatenation *)
  Lemma put_at (A X Z Y : bytes) pos :
    pos = lenN A -> lenN Y = lenN X -> put (A ++ X ++ Z) pos Y = A ++ Y ++ Z.
  Proof.
    intros -> HY. unfold put. rewrite takeN_app_exact by reflexivity. f_equal. f_equal.
    rewrite app_assoc. apply dropN_app_exact. rewrite lenN_app. lia.
  Qed.

  Lemma split3 (l : bytes) a b :
    l = takeN a l ++ takeN b (dropN a l) ++ dropN (a + b) l.
  Proof.
    rewrite <- (takeN_dropN a l) at 1. f_equal.
    rewrite <- (takeN_dropN b (dropN a l)) at 1. f_equal.
    rewrite dropN_dropN. f_equal. lia.
  Qed.

  Lemma fillHeader_ok s last d :
    lenN (w_buf s) = bs p -> w_j s <= bs p -> w_j s = w_i s + hs p + lenN d ->
    takeN (lenN d) (dropN (w_i s + hs p) (w_buf s)) = d ->
    exists b',
      fillHeader crc p last s = WOk (set_buf s b') /\ lenN b' = bs p /\
      takeN (w_j s) b' =
        takeN (w_i s) (w_buf s) ++
        render_chunk crc (mk (if last then last_type p (w_first s) else nonlast_type p (w_first s)) d) /\
      dropN (w_j s) b' = dropN (w_j s) (w_buf s).
  Proof.
    intros Hlen Hj Hji Hd. pose proof (hs7 p pok) as H7.
    unfold fillHeader.
    replace ((w_j s <? w_i s + hs p) || (bs p <? w_j s)) with false by lia.
    set (t := if last then if w_first s then tFull p else tLast p
              else if w_first s then tFirst p else tMiddle p).
    assert (Et : (if last then last_type p (w_first s) else nonlast_type p (w_first s)) = t)
      by (unfold t, last_type, nonlast_type; destruct last; reflexivity).
    rewrite Et.
    set (buf := w_buf s) in *. set (i := w_i s) in *. set (j := w_j s) in *.
    set (A := takeN i buf).
    set (H := takeN 7 (dropN i buf)).
    set (Z := dropN j buf).
    assert (LA : lenN A = i) by (unfold A; rewrite lenN_takeN; lia).
    assert (LH : lenN H = 7) by (unfold H; rewrite lenN_takeN, lenN_dropN; lia).
    assert (Ebuf : buf = A ++ H ++ d ++ Z).
    { rewrite (split3 buf i 7) at 1. fold A H. f_equal. f_equal.
      rewrite (split3 (dropN (i + 7) buf) 0 (lenN d)). rewrite takeN_0, dropN_0. cbn [app].
      rewrite dropN_dropN. replace (i + 7) with (i + hs p) by lia. rewrite Hd. f_equal.
      unfold Z. f_equal. lia. }
    set (h4 := takeN 4 H). set (h2 := takeN 2 (dropN 4 H)). set (h1 := dropN 6 H).
    assert (EH : H = h4 ++ h2 ++ h1).
    { rewrite (split3 H 4 2) at 1. reflexivity. }
    assert (L4 : lenN h4 = 4) by (unfold h4; rewrite lenN_takeN; lia).
    assert (L2 : lenN h2 = 2) by (unfold h2; rewrite lenN_takeN, lenN_dropN; lia).
    assert (L1 : lenN h1 = 1) by (unfold h1; rewrite lenN_dropN; lia).
    (* type byte *)
    assert (E1 : put buf (i + 6) [t] = (A ++ h4 ++ h2) ++ [t] ++ d ++ Z).
    { rewrite Ebuf, EH.
      replace (A ++ (h4 ++ h2 ++ h1) ++ d ++ Z) with ((A ++ h4 ++ h2) ++ h1 ++ d ++ Z)
        by (rewrite <- !app_assoc; reflexivity).
      apply put_at; [rewrite !lenN_app; lia | rewrite L1; reflexivity]. }
    rewrite E1.
    assert (Lb1 : lenN ((A ++ h4 ++ h2) ++ [t] ++ d ++ Z) = bs p).
    { rewrite <- E1. rewrite lenN_put; [exact Hlen|]. rewrite lenN_cons, lenN_nil. lia. }
    assert (LZ : lenN Z = bs p - j) by (unfold Z; rewrite lenN_dropN; lia).
    (* checksummed body *)
    assert (Es : slice ((A ++ h4 ++ h2) ++ [t] ++ d ++ Z) (i + 6) j = Some (t :: d)).
    { rewrite slice_some by lia. f_equal.
      rewrite dropN_app_exact by (rewrite !lenN_app; lia).
      replace ([t] ++ d ++ Z) with ((t :: d) ++ Z) by reflexivity.
      apply takeN_app_exact. rewrite lenN_cons. lia. }
    rewrite Es.
    set (c4 := le_encode 4 (cksum crc (t :: d))).
    set (c2 := le_encode 2 ((j - i - hs p) mod 65536)).
    assert (Lc4 : lenN c4 = 4) by (unfold c4; rewrite lenN_le_encode; reflexivity).
    assert (Lc2 : lenN c2 = 2) by (unfold c2; rewrite lenN_le_encode; reflexivity).
    assert (E2 : put ((A ++ h4 ++ h2) ++ [t] ++ d ++ Z) (i + 0) c4 = A ++ c4 ++ h2 ++ [t] ++ d ++ Z).
    { replace ((A ++ h4 ++ h2) ++ [t] ++ d ++ Z) with (A ++ h4 ++ (h2 ++ [t] ++ d ++ Z))
        by (rewrite <- !app_assoc; reflexivity).
      apply put_at; lia. }
    rewrite E2.
    assert (E3 : put (A ++ c4 ++ h2 ++ [t] ++ d ++ Z) (i + 4) c2 = (A ++ c4) ++ c2 ++ [t] ++ d ++ Z).
    { replace (A ++ c4 ++ h2 ++ [t] ++ d ++ Z) with ((A ++ c4) ++ h2 ++ ([t] ++ d ++ Z))
        by (rewrite <- !app_assoc; reflexivity).
      apply put_at; [rewrite lenN_app; lia | lia]. }
    rewrite E3.
    eexists. split; [reflexivity|].
    assert (Er : render_chunk crc (mk t d) = c4 ++ c2 ++ [t] ++ d).
    { unfold render_chunk, mk; cbn [c_type c_data]. fold c4. unfold c2.
      replace (j - i - hs p) with (lenN d) by lia. reflexivity. }
    rewrite Er.
    replace ((A ++ c4) ++ c2 ++ [t] ++ d ++ Z) with ((A ++ c4 ++ c2 ++ [t] ++ d) ++ Z)
      by (rewrite <- !app_assoc; reflexivity).
    assert (Lpre : lenN (A ++ c4 ++ c2 ++ [t] ++ d) = j).
    { rewrite !lenN_app, lenN_cons, lenN_nil. lia. }
    split; [rewrite lenN_app; lia|]. split.
    - apply takeN_app_exact. exact Lpre.
    - apply dropN_app_exact. exact Lpre.
  Qed.

  Definition fin (l : lay) (pend : option (bool * bytes)) : lay :=
    match pend with
    | Some (f, d) => lay_push l (mk (last_type p f) d)
    | None => l
    end.

  (* "finalised" states: everything up to j is rendered chunks of the open block *)
  Definition WRelF (l : lay) (s : wstate) : Prop :=
    lenN (w_buf s) = bs p /\ w_j s <= bs p /\
    w_j s = bsize p (l_open l) /\
    takeN (w_j s) (w_buf s) = render_chunks crc (l_open l) /\
    w_written s <= w_j s /\
    w_out s = flat_map (render_closed crc p) (l_closed l) ++ takeN (w_written s) (w_buf s).

  (* a chunk is pending: header space reserved at i, payload d copied behind it *)
  Definition WRelP (l : lay) (f : bool) (d : bytes) (s : wstate) : Prop :=
    lenN (w_buf s) = bs p /\ w_j s <= bs p /\
    w_pending s = true /\ w_first s = f /\
    w_i s = bsize p (l_open l) /\ w_j s = w_i s + hs p + lenN d /\
    takeN (w_i s) (w_buf s) = render_chunks crc (l_open l) /\
    takeN (lenN d) (dropN (w_i s + hs p) (w_buf s)) = d /\
    w_written s <= w_i s /\
    w_out s = flat_map (render_closed crc p) (l_closed l) ++ takeN (w_written s) (w_buf s).

  Definition WRel (l : lay) (pend : option (bool * bytes)) (s : wstate) : Prop :=
    match pend with
    | Some (f, d) => WRelP l f d s
    | None => w_pending s = false /\ WRelF l s
    end.

  Lemma takeN_prefix_eq (a b : bytes) n m :
    n <= m -> takeN m a = takeN m b -> takeN n a = takeN n b.
  Proof.
    intros H E. replace n with (N.min n m) by lia. rewrite <- !takeN_takeN, E. reflexivity.
  Qed.

  (* a buffer rewritten from position i on keeps what stood before i *)
  Lemma takeN_kept (b b' : bytes) i j x n :
    takeN j b' = takeN i b ++ x -> i <= j -> i <= lenN b -> n <= i -> takeN n b = takeN n b'.
  Proof.
    intros Et Hij Hi Hn. apply (takeN_prefix_eq _ _ _ i); [exact Hn|].
    apply (f_equal (takeN i)) in Et. rewrite takeN_takeN in Et.
    replace (N.min i j) with i in Et by lia. rewrite Et.
    rewrite takeN_app_exact; [reflexivity|]. rewrite lenN_takeN. lia.
  Qed.

  (* fillHeader turns a pending state into a finalised one (flags aside) *)
  Lemma fill_last l f d s :
    WRelP l f d s ->
    exists b', fillHeader crc p true s = WOk (set_buf s b') /\
               WRelF (lay_push l (mk (last_type p f) d)) (set_buf s b').
  Proof.
    intros (Hlen & Hj & Hp & Hf & Hi & Hji & HA & Hd & Hw & Hout).
    destruct (fillHeader_ok s true d Hlen Hj Hji Hd) as (b' & E & Lb & Et & Ed).
    exists b'. split; [exact E|]. unfold WRelF, set_buf; cbn [w_buf w_j w_written w_out lay_push l_open l_closed].
    rewrite Hf in Et.
    split; [exact Lb|]. split; [exact Hj|]. split.
    { rewrite bsize_app. cbn [bsize]. unfold csize, mk; cbn [c_data]. lia. }
    split. { rewrite Et, HA, render_chunks_app. unfold render_chunks at 3. cbn [flat_map]. now rewrite app_nil_r. }
    split; [lia|]. rewrite Hout. f_equal.
    apply (takeN_kept _ _ (w_i s) (w_j s) _ _ Et); lia.
  Qed.

  Lemma finalize_ok l pend s :
    WRel l pend s ->
    exists s1, (if w_pending s then fillHeader crc p true s else WOk s) = WOk s1 /\
               WRelF (fin l pend) s1.
  Proof.
    intros R. destruct pend as [[f d]|]; cbn [WRel fin] in *.
    - pose proof R as (_ & _ & Hp & _). rewrite Hp.
      destruct (fill_last l f d s R) as (b' & E & RF). rewrite E. eexists. split; [reflexivity|exact RF].
    - destruct R as (Hp & RF). rewrite Hp. exists s. auto.
  Qed.

  Lemma writePending_ok l pend s :
    WRel l pend s ->
    exists s', writePending crc p s = WOk s' /\ WRel (fin l pend) None s' /\ w_written s' = w_j s'.
  Proof.
    intros R. unfold writePending.
    assert (exists s1, (if w_pending s
              then wbind (fillHeader crc p true s) (fun s1 =>
                     WOk {| w_buf := w_buf s1; w_i := w_i s1; w_j := w_j s1; w_written := w_written s1;
                            w_first := w_first s1; w_pending := false; w_out := w_out s1 |})
              else WOk s) = WOk s1 /\ w_pending s1 = false /\ WRelF (fin l pend) s1) as (s1 & E1 & P1 & R1).
    { destruct (finalize_ok l pend s R) as (s0 & E0 & R0).
      destruct (w_pending s) eqn:Hp.
      - rewrite E0. cbn [wbind]. eexists. split; [reflexivity|]. split; [reflexivity|]. exact R0.
      - injection E0 as <-. exists s. auto. }
    rewrite E1. cbn [wbind].
    destruct R1 as (Hlen & Hj & Hjb & HA & Hw & Hout).
    rewrite slice_some by lia.
    eexists. split; [reflexivity|]. split; [|reflexivity].
    cbn [WRel]. split; [exact P1|].
    unfold WRelF; cbn [w_buf w_j w_written w_out].
    repeat split; try assumption; try lia.
    rewrite Hout, <- app_assoc. f_equal.
    rewrite <- (takeN_dropN (w_written s1) (takeN (w_j s1) (w_buf s1))).
    rewrite takeN_takeN, dropN_takeN. replace (N.min (w_written s1) (w_j s1)) with (w_written s1) by lia.
    reflexivity.
  Qed.

  Lemma flat_map_snoc {A B} (f : A -> list B) l x : flat_map f (l ++ [x]) = flat_map f l ++ f x.
  Proof. rewrite flat_map_app. cbn [flat_map]. now rewrite app_nil_r. Qed.

  Lemma wNext_ok l pend s :
    WRel l pend s ->
    exists s', wNext crc p s = WOk s' /\ WRelP (lay_next p (fin l pend)) true [] s'.
  Proof.
    intros R. pose proof (hs7 p pok) as H7. pose proof (hs_lt_bs p pok) as Hb.
    unfold wNext. destruct (finalize_ok l pend s R) as (s1 & E1 & RF). rewrite E1. cbn [wbind].
    set (L := fin l pend) in *.
    destruct RF as (Hlen & Hj & Hjb & HA & Hw & Hout).
    unfold lay_next. rewrite <- Hjb.
    destruct (bs p <? w_j s1 + hs p) eqn:Eb.
    - cbn [w_buf w_i w_j set_buf].
      set (buf2 := put (w_buf s1) (w_j s1) (zeros (bs p - w_j s1))).
      assert (E2 : buf2 = render_closed crc p (l_open L)).
      { unfold buf2, put, render_closed. rewrite HA, lenN_zeros. rewrite <- Hjb.
        rewrite (dropN_all (w_j s1 + (bs p - w_j s1))) by lia. now rewrite app_nil_r. }
      assert (L2 : lenN buf2 = bs p).
      { unfold buf2. rewrite lenN_put; [exact Hlen|]. rewrite lenN_zeros. lia. }
      unfold writeBlock, set_buf. cbn [w_buf w_i w_j w_written w_out w_first w_pending].
      rewrite slice_some by lia. cbn [wbind].
      eexists. split; [reflexivity|].
      unfold WRelP; cbn [w_buf w_i w_j w_written w_first w_pending w_out lay_close l_open l_closed].
      rewrite L2. repeat split; try lia; try (unfold lenN; cbn [length]; lia).
      rewrite flat_map_snoc, Hout, <- app_assoc. rewrite takeN_0, app_nil_r. f_equal.
      rewrite <- E2.
      rewrite (takeN_all (bs p - w_written s1)) by (rewrite lenN_dropN; lia).
      rewrite <- (takeN_dropN (w_written s1) buf2) at 2. f_equal.
      apply (takeN_prefix_eq _ _ _ (w_j s1)); [exact Hw|].
      unfold buf2, put. rewrite takeN_app_exact; [reflexivity|]. rewrite lenN_takeN. lia.
    - cbn [wbind]. eexists. split; [reflexivity|].
      unfold WRelP; cbn [w_buf w_i w_j w_written w_first w_pending w_out].
      repeat split; try assumption; try lia; try (unfold lenN; cbn [length]; lia).
  Qed.

  Lemma WRelP_fits l f d s : WRelP l f d s -> fits p l d.
  Proof. intros (_ & Hj & _ & _ & Hi & Hji & _). unfold fits. lia. Qed.

  Lemma WRelP_j l f d s : WRelP l f d s -> w_j s = bsize p (l_open l) + hs p + lenN d.
  Proof. intros (_ & _ & _ & _ & Hi & Hji & _). lia. Qed.

  (* copying n more payload bytes behind the pending chunk *)
  Lemma wcopy_ok l f d s x :
    WRelP l f d s -> lenN x <= bs p - w_j s ->
    WRelP l f (d ++ x)
      {| w_buf := put (w_buf s) (w_j s) x; w_i := w_i s; w_j := w_j s + lenN x;
         w_written := w_written s; w_first := w_first s; w_pending := w_pending s;
         w_out := w_out s |}.
  Proof.
    intros (Hlen & Hj & Hp & Hf & Hi & Hji & HA & Hd & Hw & Hout) Hx.
    pose proof (hs7 p pok) as H7.
    unfold WRelP; cbn [w_buf w_i w_j w_written w_first w_pending w_out].
    assert (Lt : lenN (takeN (w_j s) (w_buf s)) = w_j s) by (rewrite lenN_takeN; lia).
    assert (Epre : forall k, k <= w_j s -> takeN k (put (w_buf s) (w_j s) x) = takeN k (w_buf s)).
    { intros k Hk. unfold put. rewrite takeN_app_le by lia. rewrite takeN_takeN. f_equal. lia. }
    split; [rewrite lenN_put; lia|]. split; [lia|]. split; [exact Hp|]. split; [exact Hf|].
    split; [exact Hi|]. split; [rewrite lenN_app; lia|].
    split; [rewrite Epre by lia; exact HA|]. split.
    - unfold put. rewrite dropN_app_le by lia. rewrite dropN_takeN.
      replace (w_j s - (w_i s + hs p)) with (lenN d) by lia. rewrite Hd.
      rewrite app_assoc. apply takeN_app_exact. reflexivity.
    - split; [exact Hw|]. rewrite Hout. f_equal. symmetry. apply Epre. lia.
  Qed.

  (* the first half of a pass of the loop: when the block is full, header of a first/middle chunk, block
     written out *)
  Lemma wflush_ok l f d s :
    WRelP l f d s ->
    let full := bsize p (l_open l) + hs p + lenN d =? bs p in
    let d1 := if full then [] else d in
    exists s2,
      (if w_j s =? bs p
       then wbind (fillHeader crc p false s) (fun s1 =>
              wbind (writeBlock p s1) (fun s2 =>
                WOk {| w_buf := w_buf s2; w_i := w_i s2; w_j := w_j s2; w_written := w_written s2;
                       w_first := false; w_pending := w_pending s2; w_out := w_out s2 |}))
       else WOk s) = WOk s2 /\
      WRelP (if full then lay_close (lay_push l (mk (nonlast_type p f) d)) else l)
            (if full then false else f) d1 s2.
  Proof.
    intros R. cbn zeta. rewrite <- (WRelP_j _ _ _ _ R).
    destruct (w_j s =? bs p) eqn:Hfull; [apply N.eqb_eq in Hfull|exists s; split; [reflexivity|exact R]].
    pose proof R as (Hlen & Hj & Hp & Hf & Hi & Hji & HA & Hd & Hw & Hout).
    pose proof (hs7 p pok) as H7. pose proof (hs_lt_bs p pok) as Hb.
    destruct (fillHeader_ok s false d Hlen Hj Hji Hd) as (b' & E & Lb & Et & Ed).
    rewrite E. cbn [wbind]. unfold writeBlock, set_buf. cbn [w_buf w_i w_j w_written w_first w_pending w_out].
    rewrite slice_some by lia. cbn [wbind].
    eexists. split; [reflexivity|].
    unfold WRelP; cbn [w_buf w_i w_j w_written w_first w_pending w_out lay_close lay_push l_open l_closed].
    rewrite Lb. repeat split; try lia; try (unfold lenN; cbn [length]; lia); try assumption.
    rewrite flat_map_snoc, Hout, <- app_assoc. rewrite takeN_0, app_nil_r. f_equal.
    rewrite (takeN_all (bs p - w_written s)) by (rewrite lenN_dropN; lia).
    assert (Eb : b' = render_closed crc p (l_open l ++ [mk (nonlast_type p f) d])).
    { assert (Eb : bsize p (l_open l ++ [mk (nonlast_type p f) d]) = bs p).
      { rewrite bsize_app. cbn [bsize]. unfold csize, mk; cbn [c_data]. lia. }
      unfold render_closed. rewrite Eb. replace (bs p - bs p) with 0 by lia.
      change (zeros 0) with (@nil N). rewrite app_nil_r.
      rewrite render_chunks_app.
      unfold render_chunks at 2. cbn [flat_map]. rewrite app_nil_r.
      rewrite <- HA, <- Hf. rewrite <- Et. rewrite Hfull. symmetry. apply takeN_all. lia. }
    rewrite <- Eb.
    rewrite <- (takeN_dropN (w_written s) b') at 2. f_equal.
    apply (takeN_kept _ _ (w_i s) (w_j s) _ _ Et); lia.
  Qed.

  Lemma wWrite_st_ok : forall fuel l f d s q,
    WRelP l f d s -> (length q <= fuel)%nat ->
    exists s' l' f' d',
      wWrite crc p fuel s q = WOk s' /\ WRelP l' f' d' s' /\
      (l', f', d') = lay_write_st p fuel l f d q.
  Proof.
    induction fuel as [|fuel IH]; intros l f d s q R Hq;
      (destruct q as [|x q]; [cbn; exists s, l, f, d; auto|]); [cbn in Hq; lia|].
    cbn [wWrite lay_write_st].
    destruct (pass_ok p pok l f d (x :: q) (WRelP_fits _ _ _ _ R) ltac:(discriminate))
      as (_ & Hnq & Hroom & _ & Hlt).
    destruct (wflush_ok l f d s R) as (s1 & E1 & R1). cbn zeta in Hnq, Hroom, Hlt, R1. rewrite E1. clear E1.
    set (full := _ =? bs p) in *. revert R1 Hnq Hroom Hlt.
    generalize (if full then lay_close (lay_push l (mk (nonlast_type p f) d)) else l),
      (if full then false else f), (if full then [] else d).
    intros l1 f1 d1 R1 Hnq Hroom Hlt. cbn [wbind].
    pose proof R1 as (Hlen & _). rewrite Hlen, (WRelP_j _ _ _ _ R1).
    replace (bs p <? bsize p (l_open l1) + hs p + lenN d1) with false by lia.
    set (n := N.min _ _) in *.
    pose proof (wcopy_ok l1 f1 d1 s1 (takeN n (x :: q)) R1) as R3.
    rewrite lenN_takeN, (WRelP_j _ _ _ _ R1), (N.min_l n) in R3 by exact Hnq.
    apply (IH l1 f1 (d1 ++ takeN n (x :: q)) _ (dropN n (x :: q))); [apply R3|cbn [length] in *]; lia.
  Qed.

  (* several Write calls: the state reached is the one reached by one Write of the concatenation *)
  Lemma wWrites_ok : forall ps l f d s,
    WRelP l f d s ->
    exists s' l' f' d',
      wWrites crc p s ps = WOk s' /\ WRelP l' f' d' s' /\
      (l', f', d') = lay_write_st p (length (concat ps)) l f d (concat ps).
  Proof.
    induction ps as [|q ps IH]; intros l f d s R.
    - exists s, l, f, d. cbn. auto.
    - cbn [wWrites concat].
      destruct (wWrite_st_ok (length q) l f d s q R ltac:(lia)) as (s1 & l1 & f1 & d1 & E1 & R1 & Est1).
      rewrite E1. cbn [wbind].
      destruct (IH l1 f1 d1 s1 R1) as (s2 & l2 & f2 & d2 & E2 & R2 & Est2).
      exists s2, l2, f2, d2. split; [exact E2|]. split; [exact R2|].
      pose proof (WRelP_fits _ _ _ _ R) as Hfit. pose proof (WRelP_fits _ _ _ _ R1) as Hfit1.
      rewrite (lws_app p pok (length (q ++ concat ps)) l f d q (concat ps) Hfit (le_n _)).
      rewrite (lws_fuel p pok (length (q ++ concat ps)) (length q) l f d q Hfit)
        by (rewrite ?app_length; lia).
      rewrite <- Est1.
      rewrite (lws_fuel p pok (length (q ++ concat ps)) (length (concat ps)) l1 f1 d1 (concat ps) Hfit1)
        by (rewrite ?app_length; lia).
      exact Est2.
  Qed.

  Lemma w_init_rel : WRel lay_empty None (w_init p).
  Proof.
    cbn [WRel]. split; [reflexivity|]. unfold WRelF, w_init, lay_empty; cbn.
    rewrite lenN_zeros. repeat split; try lia.
  Qed.

  Lemma wRecordP_ok l pend s ps fl :
    WRel l pend s ->
    exists s' l' pend',
      wRecordP crc p s ps fl = WOk s' /\ WRel l' pend' s' /\
      fin l' pend' = lay_record p (fin l pend) (concat ps).
  Proof.
    intros R. unfold wRecordP.
    destruct (wNext_ok l pend s R) as (s1 & E1 & R1). rewrite E1. cbn [wbind].
    destruct (wWrites_ok ps _ true [] s1 R1) as (s2 & l2 & f2 & d2 & E2 & R2 & Est).
    rewrite E2. cbn [wbind].
    assert (EL : lay_push l2 (mk (last_type p f2) d2) = lay_record p (fin l pend) (concat ps)).
    { unfold lay_record. rewrite (lws_fin p pok (length (concat ps)) _ true [] (concat ps) (WRelP_fits _ _ _ _ R1) (le_n _)).
      rewrite <- Est. reflexivity. }
    destruct fl.
    - destruct (writePending_ok l2 (Some (f2, d2)) s2 R2) as (s3 & E3 & R3 & _).
      unfold wFlush. rewrite E3. exists s3, (fin l2 (Some (f2, d2))), None.
      split; [reflexivity|]. split; [exact R3|]. cbn [fin]. exact EL.
    - exists s2, l2, (Some (f2, d2)). split; [reflexivity|]. split; [exact R2|]. cbn [fin]. exact EL.
  Qed.

  Lemma wRecordsP_ok rss : forall fl l pend s,
    WRel l pend s ->
    exists s' l' pend',
      wRecordsP crc p s fl rss = WOk s' /\ WRel l' pend' s' /\
      fin l' pend' = fold_left (lay_record p) (map (@concat N) rss) (fin l pend).
  Proof.
    induction rss as [|ps rss IH]; intros fl l pend s R.
    - exists s, l, pend. cbn. auto.
    - cbn [wRecordsP fold_left map].
      destruct (wRecordP_ok l pend s ps (hd false fl) R) as (s1 & l1 & pend1 & E1 & R1 & EL1).
      rewrite E1. cbn [wbind].
      destruct (IH (tl fl) l1 pend1 s1 R1) as (s2 & l2 & pend2 & E2 & R2 & EL2).
      exists s2, l2, pend2. split; [exact E2|]. split; [exact R2|]. rewrite EL2, EL1. reflexivity.
  Qed.

  Theorem writer_pieces_layout fl rss :
    exists s, jwrite_pieces_res crc p fl rss = WOk s /\
              w_out s = render_lay crc p (layout p (map (@concat N) rss)).
  Proof.
    unfold jwrite_pieces_res.
    destruct (wRecordsP_ok rss fl lay_empty None (w_init p) w_init_rel) as (s1 & l1 & pend1 & E1 & R1 & EL).
    rewrite E1. cbn [wbind]. unfold wClose.
    destruct (writePending_ok l1 pend1 s1 R1) as (s2 & E2 & R2 & Hw).
    exists s2. split; [exact E2|].
    cbn [WRel] in R2. destruct R2 as (_ & Hlen & Hj & Hjb & HA & _ & Hout).
    rewrite Hout, Hw, HA. unfold render_lay, layout. rewrite EL. reflexivity.
  Qed.

  Corollary jwrite_pieces_layout fl rss :
    jwrite_pieces crc p fl rss = render_lay crc p (layout p (map (@concat N) rss)).
  Proof.
    unfold jwrite_pieces. destruct (writer_pieces_layout fl rss) as (s & E & Ho). rewrite E. exact Ho.
  Qed.
  Lemma wRecord_piece s r fl : wRecord crc p s r fl = wRecordP crc p s [r] fl.
  Proof.
    unfold wRecord, wRecordP. destruct (wNext crc p s) as [s1| |]; cbn [wbind wWrites]; try reflexivity.
    destruct (wWrite crc p (length r) s1 r); reflexivity.
  Qed.

  Lemma wRecords_pieces rs : forall s fl, wRecords crc p s fl rs = wRecordsP crc p s fl (map (fun r => [r]) rs).
  Proof.
    induction rs as [|r rs IH]; intros s fl; [reflexivity|]. cbn [wRecords wRecordsP map].
    rewrite wRecord_piece. destruct (wRecordP crc p s [r] (hd false fl)); cbn [wbind]; [apply IH|reflexivity..].
  Qed.

  Theorem writer_layout fl rs :
    exists s, jwrite_res crc p fl rs = WOk s /\ w_out s = render_lay crc p (layout p rs).
  Proof.
    destruct (writer_pieces_layout fl (map (fun r => [r]) rs)) as (s & E & Ho). exists s.
    unfold jwrite_res. rewrite wRecords_pieces. split; [exact E|]. rewrite Ho, map_map. do 2 f_equal.
    rewrite <- (map_id rs) at 2. apply map_ext. intros r. apply app_nil_r.
  Qed.

  Corollary jwrite_layout fl rs : jwrite crc p fl rs = render_lay crc p (layout p rs).
  Proof.
    unfold jwrite. destruct (writer_layout fl rs) as (s & E & Ho). rewrite E. exact Ho.
  Qed.
End WriterProofs.
