(* Codec/IKeyProofs.v — the internal-key order (iComparer.Compare) for an injective user comparer, where the lookup
   probe sorts among the entries of its own user key, and the round trip between an internal key and its bytes. *)
From GL Require Import Base.BytesProofs Base.OrderProofs Base.OrderPre Codec.IKey Codec.IKeyPreProofs
  Codec.IKeyProbePreProofs.
From Coq Require Import ZArith Lia.

Lemma ikey_ext a b : uk a = uk b -> num a = num b -> a = b.
Proof. destruct a, b; cbn; intros -> ->; reflexivity. Qed.

(* An injective comparer satisfies the preorder contract (comparer_ok_pre), and under it "compares Eq" is
   identity of bytes: the laws below are those of Codec/IKeyPreProofs.v read through cmp_eq. *)
Section Laws.
  Variable c : comparer.
  Hypothesis ok : comparer_ok c.

  Lemma icmp_eq a b : icmp c a b = Eq <-> a = b.
  Proof.
    rewrite picmp_eq, (cmp_eq c ok). split.
    - intros [Hu Hn]. apply ikey_ext; assumption.
    - intros ->. split; reflexivity.
  Qed.

  Lemma icmp_opp a b : icmp c b a = CompOpp (icmp c a b).
  Proof. apply (picmp_opp c (comparer_ok_pre c ok)). Qed.

  Lemma icmp_trans a b d : icmp c a b = Lt -> icmp c b d = Lt -> icmp c a d = Lt.
  Proof. apply (picmp_trans c (comparer_ok_pre c ok)). Qed.

  Lemma icmp_total a b : icmp c a b = Lt \/ a = b \/ icmp c b a = Lt.
  Proof. rewrite <- icmp_eq. apply (picmp_total c (comparer_ok_pre c ok)). Qed.

  Lemma icmp_irrefl a : icmp c a a <> Lt.
  Proof. apply (picmp_irrefl c (comparer_ok_pre c ok)). Qed.

  (* ordering: ukey ascending, then newest (larger seq) first *)
  Lemma icmp_ukey_lt a b : cmp c (uk a) (uk b) = Lt -> icmp c a b = Lt.
  Proof. apply picmp_ukey_lt. Qed.

  Lemma icmp_same_ukey u m n :
    icmp c {| uk := u; num := m |} {| uk := u; num := n |} = Lt <-> n < m.
  Proof. unfold icmp; cbn. rewrite (cmp_refl c ok). apply N.compare_lt_iff. Qed.

  Section Params.
    Variable p : kparams.
    Hypothesis pok : kparams_ok p.

    (* probe placement: among entries of user key k, the probe (k, s, Seek) sorts after every
       entry newer than s and not after any entry with seq <= s *)
    Lemma probe_after_newer k s s' t : t <= keyTypeSeek p ->
      icmp c {| uk := k; num := pack s' t |} (probe p k s) = Lt <-> s < s'.
    Proof. intros Ht. unfold probe. rewrite icmp_same_ukey. apply (pack_lt_iff p pok). exact Ht. Qed.

    Lemma probe_not_after_older k s s' t : t <= keyTypeSeek p -> s' <= s ->
      icmp c (probe p k s) {| uk := k; num := pack s' t |} <> Gt.
    Proof.
      intros Ht Hs. unfold probe, icmp; cbn. rewrite (cmp_refl c ok). unfold pack.
      rewrite N.compare_gt_iff. nia.
    Qed.

    (* ... and for a different user key the probe is ordered by user key alone *)
    Lemma probe_other_ukey k s e : cmp c k (uk e) = Lt -> icmp c (probe p k s) e = Lt.
    Proof. intros H. apply icmp_ukey_lt. exact H. Qed.
    Lemma probe_other_ukey' k s e : cmp c (uk e) k = Lt -> icmp c e (probe p k s) = Lt.
    Proof. intros H. apply icmp_ukey_lt. exact H. Qed.

    Lemma isep_law a b x : isep c p a b = Some x ->
      icmp c a x = Lt /\ icmp c x b = Lt.
    Proof. apply (pisep_law c (comparer_ok_pre c ok)). Qed.

    Lemma isucc_law b x : isucc c p b = Some x -> icmp c b x = Lt.
    Proof. apply (pisucc_law c p). Qed.
  End Params.
End Laws.

Lemma split_encode k : num k < 2 ^ 64 -> split_ikey (encode_ikey k) = Some k.
Proof.
  intros H. unfold split_ikey, encode_ikey.
  assert (L : length (le64 (num k)) = 8%nat) by apply le_encode_length.
  rewrite app_length, L.
  replace (Nat.ltb (length (uk k) + 8) 8) with false by (symmetry; apply Nat.ltb_ge; lia).
  rewrite droplast_app, lastn_app by exact L.
  rewrite le64_roundtrip by exact H. destruct k; reflexivity.
Qed.

Lemma encode_split b k : wf_bytes b -> split_ikey b = Some k -> encode_ikey k = b.
Proof.
  intros W. unfold split_ikey, encode_ikey.
  destruct (Nat.ltb (length b) 8) eqn:L; try discriminate.
  apply Nat.ltb_ge in L.
  intros H; injection H as <-. cbn [uk num].
  assert (W2 : wf_bytes (lastn 8 b)).
  { unfold wf_bytes, lastn in *. rewrite <- (firstn_skipn (length b - 8) b) in W.
    apply Forall_app in W. apply W. }
  unfold le64. pose proof (le_encode_decode (lastn 8 b) W2) as E.
  rewrite (lastn_length 8 b L) in E. rewrite E. apply droplast_lastn.
Qed.

Lemma make_ikey_bound p u s t k : kparams_ok p -> make_ikey p u s t = MkOk k -> num k < 2 ^ 64 /\ uk k = u /\ num k = pack s t.
Proof.
  intros (Hd & Hv & _ & H256 & Hmax & _). unfold make_ikey.
  destruct (keyMaxSeq p <? s) eqn:E1; try discriminate.
  destruct (keyTypeVal p <? t) eqn:E2; try discriminate.
  intros H; injection H as <-. cbn. unfold pack. rewrite Hmax in E1.
  split; [|split; reflexivity].
  apply N.ltb_ge in E1, E2.
  change (2 ^ 64) with (2 ^ 56 * 256). 
  assert (s < 2 ^ 56) by (change (2^56) with 72057594037927936 in *; lia).
  nia.
Qed.
