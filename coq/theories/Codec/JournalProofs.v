(* Codec/JournalProofs.v — the journal theorems: round trip, independence of the flush pattern and of how a record
   is split over Write calls, totality of writer and reader, truncation (a cut yields a prefix of the records;
   fit / fitb count the chunks wholly inside the cut), and extension of layouts (lay_ext: what agrees with the
   written stream on its first n bytes yields first the records written inside them).  Built on
     JournalReaderProofs.reader_factor : jread_log = assemble . stream_events
     JournalWriterProofs.jwrite_layout : jwrite    = render_lay . layout            *)
From GL Require Import Base.BytesProofs Codec.JournalSpec Codec.JournalLemmas Codec.JournalLayoutProofs
  Codec.JournalReaderProofs Codec.JournalWriterProofs.
From Coq Require Import PeanoNat Lia.

Section JournalProofs.
  Variable crc : bytes -> N.
  Variable p : jparams.
  Hypothesis pok : jparams_ok p.

  Let H7 : hs p = 7 := hs7 p pok.
  Let Hb : hs p < bs p := hs_lt_bs p pok.

  Definition chunk_ok (c : chunk) : Prop := tFull p <= c_type c /\ c_type c <= tLast p.
  Definition open_ok (cs : list chunk) : Prop := bsize p cs <= bs p /\ Forall chunk_ok cs.
  Definition closed_ok (cs : list chunk) : Prop := bs p < bsize p cs + hs p /\ open_ok cs.
  Definition wf_lay (l : lay) : Prop := Forall closed_ok (l_closed l) /\ open_ok (l_open l).

  (* the chunks of one record *)
  Inductive cont_chunks : bytes -> list chunk -> Prop :=
  | CC_last d : cont_chunks d [mk (tLast p) d]
  | CC_mid d x cs : cont_chunks x cs -> cont_chunks (d ++ x) (mk (tMiddle p) d :: cs).
  Inductive rec_chunks : bytes -> list chunk -> Prop :=
  | RC_full r : rec_chunks r [mk (tFull p) r]
  | RC_first d x cs : cont_chunks x cs -> rec_chunks (d ++ x) (mk (tFirst p) d :: cs).

  Lemma types_ok : chunk_ok (mk (tFull p) []) /\ chunk_ok (mk (tFirst p) []) /\
                   chunk_ok (mk (tMiddle p) []) /\ chunk_ok (mk (tLast p) []).
  Proof. unfold chunk_ok; cbn. pose proof pok as (_&_&_&?&?&?&?&?&_). lia. Qed.

  Lemma last_type_ok f d : chunk_ok (mk (last_type p f) d).
  Proof. pose proof types_ok. unfold chunk_ok, last_type in *; cbn in *. destruct f; lia. Qed.
  Lemma nonlast_type_ok f d : chunk_ok (mk (nonlast_type p f) d).
  Proof. pose proof types_ok. unfold chunk_ok, nonlast_type in *; cbn in *. destruct f; lia. Qed.

  Lemma lay_chunks_push l c : lay_chunks (lay_push l c) = lay_chunks l ++ [c].
  Proof. unfold lay_chunks, lay_push; cbn. now rewrite app_assoc. Qed.
  Lemma lay_chunks_close l : lay_chunks (lay_close l) = lay_chunks l.
  Proof. unfold lay_chunks, lay_close; cbn. rewrite concat_app. cbn. now rewrite !app_nil_r. Qed.

  Lemma open_ok_snoc cs c :
    open_ok cs -> chunk_ok c -> bsize p cs + csize p c <= bs p -> open_ok (cs ++ [c]).
  Proof.
    intros (H1 & H2) Hc Hs. split.
    - rewrite (bsize_app p). cbn [bsize]. lia.
    - apply Forall_app. split; [exact H2|]. constructor; [exact Hc|constructor].
  Qed.

  Lemma wf_close l : wf_lay l -> bs p < bsize p (l_open l) + hs p -> wf_lay (lay_close l).
  Proof.
    intros (H1 & H2) Hs. split; cbn.
    - apply Forall_app. split; [exact H1|]. constructor; [split; assumption|constructor].
    - split; [cbn; lia|constructor].
  Qed.

  Lemma lay_write_ok : forall fuel l f d q,
    wf_lay l -> bsize p (l_open l) + hs p + lenN d <= bs p -> (length q <= fuel)%nat ->
    wf_lay (lay_write p fuel l f d q) /\
    exists cs, lay_chunks (lay_write p fuel l f d q) = lay_chunks l ++ cs /\
               (if f then rec_chunks (d ++ q) cs else cont_chunks (d ++ q) cs).
  Proof.
    assert (Hfin : forall l f d, wf_lay l -> bsize p (l_open l) + hs p + lenN d <= bs p ->
              wf_lay (lay_push l (mk (last_type p f) d)) /\
              exists cs, lay_chunks (lay_push l (mk (last_type p f) d)) = lay_chunks l ++ cs /\
                         (if f then rec_chunks (d ++ []) cs else cont_chunks (d ++ []) cs)).
    { intros l f d (W1 & W2) Hfit. split.
      - split; [exact W1|]. cbn.
        apply open_ok_snoc; [exact W2 | apply last_type_ok | unfold csize, mk; cbn; lia].
      - exists [mk (last_type p f) d]. split; [apply lay_chunks_push|].
        rewrite app_nil_r. destruct f; constructor. }
    induction fuel as [|fuel IH]; intros l f d q Wf Hfit Hq;
      (destruct q as [|x q]; [apply Hfin; assumption|]); [cbn in Hq; lia|].
    cbn [lay_write].
    destruct (pass_ok p pok l f d (x :: q) Hfit ltac:(discriminate)) as (_ & _ & _ & Hfit' & Hlt).
    cbn zeta in Hfit', Hlt. cbn [length] in Hq, Hlt.
    destruct (bsize p (l_open l) + hs p + lenN d =? bs p) eqn:Efull.
    - set (l1 := lay_close (lay_push l (mk (nonlast_type p f) d))) in *.
      assert (Wf1 : wf_lay l1).
      { apply wf_close.
        - destruct Wf as (W1 & W2). split; [exact W1|]. cbn.
          apply open_ok_snoc; [exact W2 | apply nonlast_type_ok | unfold csize, mk; cbn; lia].
        - cbn. rewrite (bsize_app p). cbn. unfold csize; cbn. lia. }
      set (n := N.min _ _) in *.
      destruct (IH l1 false ([] ++ takeN n (x :: q)) (dropN n (x :: q)) Wf1 Hfit' ltac:(lia)) as (W & cs & Ec & Hc).
      split; [exact W|]. exists (mk (nonlast_type p f) d :: cs). split.
      + rewrite Ec. unfold l1. rewrite lay_chunks_close, lay_chunks_push, <- app_assoc. reflexivity.
      + cbn [app] in Hc. rewrite takeN_dropN in Hc. destruct f; constructor; exact Hc.
    - set (n := N.min _ _) in *.
      destruct (IH l f (d ++ takeN n (x :: q)) (dropN n (x :: q)) Wf Hfit' ltac:(lia)) as (W & cs & Ec & Hc).
      split; [exact W|]. exists cs. split; [exact Ec|].
      rewrite <- app_assoc, takeN_dropN in Hc. exact Hc.
  Qed.

  Lemma lay_next_ok l : wf_lay l -> wf_lay (lay_next p l) /\
    bsize p (l_open (lay_next p l)) + hs p <= bs p /\ lay_chunks (lay_next p l) = lay_chunks l.
  Proof.
    intros Wf. unfold lay_next. destruct (bs p <? bsize p (l_open l) + hs p) eqn:E.
    - split; [apply wf_close; [exact Wf|lia]|]. split; [cbn; lia | apply lay_chunks_close].
    - split; [exact Wf|]. split; [lia|reflexivity].
  Qed.

  Lemma lay_record_ok l r : wf_lay l ->
    wf_lay (lay_record p l r) /\
    exists cs, lay_chunks (lay_record p l r) = lay_chunks l ++ cs /\ rec_chunks r cs.
  Proof.
    intros Wf. destruct (lay_next_ok l Wf) as (W1 & Hfit & Ec1).
    unfold lay_record.
    destruct (lay_write_ok (length r) (lay_next p l) true [] r W1) as (W & cs & Ec & Hc).
    { change (lenN (@nil N)) with 0. lia. }
    { lia. }
    split; [exact W|]. exists cs. rewrite Ec, Ec1. split; [reflexivity|exact Hc].
  Qed.

  Lemma layout_ok rs : forall l, wf_lay l ->
    wf_lay (fold_left (lay_record p) rs l) /\
    exists css, lay_chunks (fold_left (lay_record p) rs l) = lay_chunks l ++ concat css /\
                Forall2 rec_chunks rs css.
  Proof.
    induction rs as [|r rs IH]; intros l Wf.
    - split; [exact Wf|]. exists []. cbn. rewrite app_nil_r. split; [reflexivity|constructor].
    - cbn [fold_left]. destruct (lay_record_ok l r Wf) as (W1 & cs & Ec & Hc).
      destruct (IH _ W1) as (W & css & Ecs & Hcs).
      split; [exact W|]. exists (cs :: css). split.
      + rewrite Ecs, Ec. cbn [concat]. now rewrite app_assoc.
      + constructor; assumption.
  Qed.

  Lemma wf_empty : wf_lay lay_empty.
  Proof. split; cbn; [constructor|]. split; [cbn; lia|constructor]. Qed.

  Lemma render_chunk_shape t d rest' :
    render_chunk crc (mk t d) ++ rest' =
    le_encode 4 (cksum crc (t :: d)) ++ le_encode 2 (lenN d mod 65536) ++ (t :: d) ++ rest'.
  Proof. unfold render_chunk, mk; cbn [c_type c_data]. rewrite <- !app_assoc. reflexivity. Qed.

  (* one round of the block parser on a block that begins with a header: checksum field c4, length field c2,
     type byte t; body is the rest of the block *)
  Lemma parse_header ck c4 c2 t body : lenN c4 = 4 -> lenN c2 = 2 ->
    parse_from crc p ck (c4 ++ c2 ++ t :: body) =
    if (le_decode c4 =? 0) && (le_decode c2 =? 0) && (t =? 0) then [BBad R_zero (7 + lenN body)]
    else if (t <? tFull p) || (tLast p <? t) then [BBad R_type (7 + lenN body)]
    else if lenN body <? le_decode c2 then [BBad R_overflow (7 + lenN body)]
    else if ck && negb (le_decode c4 =? cksum crc (t :: takeN (le_decode c2) body))
         then [BBad R_checksum (7 + lenN body)]
    else BChunk (mk t (takeN (le_decode c2) body)) :: parse_from crc p ck (dropN (le_decode c2) body).
  Proof.
    intros L4 L2. set (rest := c4 ++ c2 ++ t :: body).
    assert (Lr : lenN rest = 7 + lenN body) by (unfold rest; rewrite !lenN_app, lenN_cons; lia).
    assert (E4 : takeN 4 rest = c4) by (apply takeN_app_exact; exact L4).
    assert (E2 : takeN 2 (dropN 4 rest) = c2).
    { unfold rest. rewrite dropN_app_exact by exact L4. apply takeN_app_exact; exact L2. }
    assert (E6 : dropN 6 rest = t :: body).
    { unfold rest. rewrite app_assoc. apply dropN_app_exact. rewrite lenN_app. lia. }
    assert (Et : nth 6 rest 0 = t).
    { pose proof (nth_dropN 0 6 0%nat rest) as Hn. rewrite E6 in Hn. cbn in Hn. symmetry. exact Hn. }
    assert (E7 : dropN (hs p) rest = body).
    { rewrite H7. replace 7 with (1 + 6) by lia. rewrite <- dropN_dropN, E6. reflexivity. }
    unfold parse_from at 1. destruct (length rest) as [|fr] eqn:Efr; [unfold lenN in Lr; lia|].
    cbn [parse_rest]. replace (lenN rest <? hs p) with false by lia.
    rewrite E4, E2, Et, E6, E7, Lr, takeN_succ_cons.
    replace (7 + lenN body <? hs p + le_decode c2) with (lenN body <? le_decode c2) by lia.
    repeat match goal with |- (if ?c then _ else _) = _ => destruct c eqn:?; [reflexivity|] end.
    f_equal. rewrite N.add_comm, <- dropN_dropN, E7. apply (parse_from_fuel crc p pok).
    assert (L : lenN (dropN (le_decode c2) body) <= lenN rest - 1) by (rewrite lenN_dropN; lia).
    unfold lenN in L. lia.
  Qed.

  Lemma header_fields t d : lenN d < 65536 ->
    lenN (le_encode 4 (cksum crc (t :: d))) = 4 /\ lenN (le_encode 2 (lenN d mod 65536)) = 2 /\
    le_decode (le_encode 4 (cksum crc (t :: d))) = cksum crc (t :: d) /\
    le_decode (le_encode 2 (lenN d mod 65536)) = lenN d.
  Proof.
    intros Hd. rewrite !lenN_le_encode, !le_decode_encode. repeat split.
    - change (256 ^ N.of_nat 4) with (2 ^ 32). unfold cksum. apply N.mod_mod. lia.
    - change (256 ^ N.of_nat 2) with 65536. rewrite N.mod_mod by lia. apply N.mod_small. exact Hd.
  Qed.

  Lemma parse_chunk ck c rest' :
    chunk_ok c -> lenN (c_data c) < 65536 ->
    parse_from crc p ck (render_chunk crc c ++ rest') = BChunk c :: parse_from crc p ck rest'.
  Proof.
    destruct c as [t d]. intros (Ht1 & Ht2) Hd. cbn [c_type c_data] in *.
    change {| c_type := t; c_data := d |} with (mk t d).
    pose proof pok as (_ & _ & _ & Hfull & _). destruct (header_fields t d Hd) as (L4 & L2 & D4 & D2).
    rewrite render_chunk_shape. cbn [app]. rewrite (parse_header ck _ _ t (d ++ rest') L4 L2), D4, D2.
    replace (t =? 0) with false by lia. rewrite andb_false_r.
    replace ((t <? tFull p) || (tLast p <? t)) with false by lia.
    replace (lenN (d ++ rest') <? lenN d) with false by (rewrite lenN_app; lia).
    rewrite takeN_app_exact, dropN_app_exact by reflexivity.
    rewrite N.eqb_refl. cbn [negb]. rewrite andb_false_r. reflexivity.
  Qed.

  Lemma chunk_len_bound cs c : open_ok cs -> In c cs -> lenN (c_data c) < 65536.
  Proof.
    intros (Hs & _) Hin. pose proof pok as (_ & _ & Hlen & _).
    assert (csize p c <= bsize p cs).
    { clear Hs. induction cs as [|c' cs IH]; [contradiction|]. cbn [bsize].
      destruct Hin as [->|Hin]; [lia|]. specialize (IH Hin). lia. }
    unfold csize in *. lia.
  Qed.

  Lemma open_ok_tail c cs : open_ok (c :: cs) -> open_ok cs.
  Proof. intros (Hs & Hf). split; [cbn [bsize] in Hs; lia|]. now inversion Hf. Qed.

  (* the block parser is sequential: the chunks rendered at the start of a block come out first *)
  Lemma parse_chunks_app ck cs rest :
    open_ok cs ->
    parse_from crc p ck (render_chunks crc cs ++ rest) = map BChunk cs ++ parse_from crc p ck rest.
  Proof.
    intros Hok. induction cs as [|c cs IH]; [reflexivity|].
    unfold render_chunks. cbn [flat_map map]. fold (render_chunks crc cs). rewrite <- app_assoc.
    rewrite parse_chunk.
    - cbn [app]. f_equal. apply IH. eapply open_ok_tail; exact Hok.
    - destruct Hok as (_ & Hf). now inversion Hf.
    - apply (chunk_len_bound (c :: cs)); [exact Hok|now left].
  Qed.

  (* a rendered block (with any tail shorter than a header) parses into its chunks *)
  Lemma parse_chunks ck cs pad :
    open_ok cs -> lenN pad < hs p ->
    parse_from crc p ck (render_chunks crc cs ++ pad) = map BChunk cs.
  Proof.
    intros Hok Hpad. rewrite (parse_chunks_app ck cs pad Hok), (parse_from_short crc p ck pad Hpad).
    apply app_nil_r.
  Qed.

  Lemma lenN_render_closed cs : open_ok cs -> lenN (render_closed crc p cs) = bs p.
  Proof.
    intros (Hs & _). unfold render_closed.
    rewrite lenN_app, (lenN_render_chunks crc p pok), lenN_zeros. lia.
  Qed.

  Lemma stream_events_one ck b :
    b <> [] -> lenN b <= bs p -> stream_events crc p ck b = parse_from crc p ck b.
  Proof.
    intros Hne Hl. rewrite (stream_events_cons crc p pok ck b Hne).
    rewrite takeN_all, dropN_all by lia. cbn. apply app_nil_r.
  Qed.

  Lemma stream_events_closed ck c1 rest : closed_ok c1 ->
    stream_events crc p ck (render_closed crc p c1 ++ rest) = map BChunk c1 ++ stream_events crc p ck rest.
  Proof.
    intros (Hbig & Hok1). pose proof (lenN_render_closed c1 Hok1) as L1.
    rewrite (stream_events_cons crc p pok).
    - rewrite takeN_app_exact, dropN_app_exact by exact L1. f_equal.
      unfold render_closed. apply parse_chunks; [exact Hok1|]. rewrite lenN_zeros. lia.
    - intros E. apply (f_equal lenN) in E. rewrite lenN_app, L1, lenN_nil in E. lia.
  Qed.

  Lemma stream_events_render_gen ck closed open :
    Forall closed_ok closed -> open_ok open ->
    stream_events crc p ck (flat_map (render_closed crc p) closed ++ render_chunks crc open)
    = map BChunk (concat closed ++ open).
  Proof.
    intros Hc Ho. induction closed as [|c1 closed IH].
    - cbn [flat_map concat app]. destruct open as [|c cs]; [reflexivity|].
      rewrite stream_events_one.
      + rewrite <- (app_nil_r (render_chunks crc (c :: cs))).
        apply parse_chunks; [exact Ho|]. change (lenN (@nil N)) with 0. lia.
      + intros E. apply (f_equal lenN) in E. rewrite (lenN_render_chunks crc p pok) in E.
        cbn [bsize] in E. unfold csize in E. change (lenN (@nil N)) with 0 in E. lia.
      + rewrite (lenN_render_chunks crc p pok). apply Ho.
    - inversion Hc as [|? ? Hc1 Hc']; subst. cbn [flat_map concat]. rewrite <- !app_assoc.
      rewrite (stream_events_closed ck c1 _ Hc1), (IH Hc'), <- map_app. reflexivity.
  Qed.

  Lemma stream_events_render ck l :
    wf_lay l -> stream_events crc p ck (render_lay crc p l) = map BChunk (lay_chunks l).
  Proof. intros (H1 & H2). apply stream_events_render_gen; assumption. Qed.

  Lemma type_facts :
    is_start_type p (tFull p) = true /\ is_last_type p (tFull p) = true /\
    is_start_type p (tFirst p) = true /\ is_last_type p (tFirst p) = false /\
    is_start_type p (tMiddle p) = false /\ is_last_type p (tMiddle p) = false /\
    is_start_type p (tLast p) = false /\ is_last_type p (tLast p) = true.
  Proof.
    pose proof pok as (_&_&_&_&_&_&_&_&?&?&?&?&?&?&_).
    unfold is_start_type, is_last_type. repeat split; lia.
  Qed.

  Lemma assemble_cont strict x cs : cont_chunks x cs -> forall acc evs,
    assemble p strict (AIn acc) (map BChunk cs ++ evs) = Rec (acc ++ x) :: assemble p strict AIdle evs.
  Proof.
    pose proof type_facts as (_&_&_&_&_&Hm&_&Hl).
    induction 1 as [d|d x cs Hc IH]; intros acc evs; cbn [map app assemble mk c_type c_data].
    - rewrite Hl. reflexivity.
    - rewrite Hm. rewrite IH, app_assoc. reflexivity.
  Qed.

  Lemma assemble_rec strict r cs evs : rec_chunks r cs ->
    assemble p strict AIdle (map BChunk cs ++ evs) = Rec r :: assemble p strict AIdle evs.
  Proof.
    pose proof type_facts as (Hs1&Hl1&Hs2&Hl2&_).
    intros [r'|d x cs' Hc]; cbn [map app assemble mk c_type c_data].
    - rewrite Hs1, Hl1. reflexivity.
    - rewrite Hs2, Hl2. apply assemble_cont. exact Hc.
  Qed.

  Lemma assemble_records strict rs css evs : Forall2 rec_chunks rs css ->
    assemble p strict AIdle (map BChunk (concat css) ++ evs) =
    map Rec rs ++ assemble p strict AIdle evs.
  Proof.
    induction 1 as [|r cs rs css Hr Hrs IH]; [reflexivity|].
    cbn [concat map]. rewrite map_app, <- app_assoc, (assemble_rec strict r cs _ Hr), IH. reflexivity.
  Qed.

  Lemma layout_chunks rs :
    wf_lay (layout p rs) /\
    exists css, lay_chunks (layout p rs) = concat css /\ Forall2 rec_chunks rs css.
  Proof.
    destruct (layout_ok rs lay_empty wf_empty) as (W & css & E & H).
    split; [exact W|]. exists css. split; [exact E|exact H].
  Qed.

  Theorem roundtrip_log strict ck fl rs :
    jread_log crc p strict ck (jwrite crc p fl rs) = map Rec rs.
  Proof.
    rewrite (reader_factor crc p pok), (jwrite_layout crc p pok).
    destruct (layout_chunks rs) as (W & css & E & H).
    rewrite (stream_events_render ck _ W), E.
    rewrite <- (app_nil_r (map BChunk (concat css))).
    rewrite (assemble_records strict rs css [] H). cbn. apply app_nil_r.
  Qed.

  Lemma outs_recs rs : outs (map Rec rs) = map Rec rs.
  Proof. induction rs as [|r rs IH]; [reflexivity|]. cbn. unfold outs in IH. now rewrite IH. Qed.

  Theorem roundtrip strict ck fl rs :
    jread crc p strict ck (jwrite crc p fl rs) = map Rec rs.
  Proof. unfold jread. rewrite roundtrip_log. apply outs_recs. Qed.

  Theorem flush_irrelevant fl1 fl2 rs : jwrite crc p fl1 rs = jwrite crc p fl2 rs.
  Proof. rewrite !(jwrite_layout crc p pok). reflexivity. Qed.

  (* a record written through several Write calls gives the bytes of one Write of the whole *)
  Theorem split_writes_irrelevant fl fl' rss :
    jwrite_pieces crc p fl rss = jwrite crc p fl' (map (@concat N) rss).
  Proof. rewrite (jwrite_pieces_layout crc p pok), (jwrite_layout crc p pok). reflexivity. Qed.

  Theorem writer_pieces_total fl rss :
    exists s, jwrite_pieces_res crc p fl rss = WOk s /\ w_out s = jwrite_pieces crc p fl rss.
  Proof.
    destruct (writer_pieces_layout crc p pok fl rss) as (s & E & Ho). exists s. split; [exact E|].
    unfold jwrite_pieces. rewrite E. reflexivity.
  Qed.

  Theorem writer_total fl rs :
    exists s, jwrite_res crc p fl rs = WOk s /\ w_out s = jwrite crc p fl rs.
  Proof.
    destruct (writer_layout crc p pok fl rs) as (s & E & Ho). exists s. split; [exact E|].
    unfold jwrite. rewrite E. reflexivity.
  Qed.

  Lemma assemble_total strict st evs :
    Forall (fun o => o <> Panic /\ o <> OutOfFuel) (assemble p strict st evs).
  Proof.
    revert st; induction evs as [|ev evs IH]; intros st.
    - destruct st; cbn; [constructor|]. destruct strict; repeat constructor; discriminate.
    - destruct ev as [c|r n]; cbn [assemble].
      + destruct st.
        * destruct (is_start_type p (c_type c)); [destruct (is_last_type p (c_type c))|];
            try (constructor; [split; discriminate|]); apply IH.
        * destruct (is_last_type p (c_type c)); try (constructor; [split; discriminate|]); apply IH.
      + constructor; [split; discriminate|]. destruct strict; [repeat constructor; discriminate|].
        destruct st; try (constructor; [split; discriminate|]); apply IH.
  Qed.

  Theorem no_panic strict ck b :
    Forall (fun o => o <> Panic /\ o <> OutOfFuel) (jread_log crc p strict ck b).
  Proof. rewrite (reader_factor crc p pok). apply assemble_total. Qed.

  Definition tail_ok (tail : list bev) : Prop := tail = [] \/ exists r sz, tail = [BBad r sz].

  (* a chunk cut inside its payload (at least the header survives) is a length overflow *)
  Lemma parse_cut_chunk ck c n :
    chunk_ok c -> lenN (c_data c) < 65536 -> hs p <= n -> n < csize p c ->
    parse_from crc p ck (takeN n (render_chunk crc c)) = [BBad R_overflow n].
  Proof.
    destruct c as [t d]. intros (Ht1 & Ht2) Hd Hn1 Hn2. cbn [c_type c_data] in *.
    unfold csize in Hn2. cbn [c_data] in Hn2.
    change {| c_type := t; c_data := d |} with (mk t d).
    pose proof pok as (_ & _ & _ & Hfull & _). destruct (header_fields t d Hd) as (L4 & L2 & _ & D2).
    pose proof (render_chunk_shape t d []) as Hs. rewrite !app_nil_r in Hs.
    rewrite Hs, (takeN_header _ _ t d n L4 L2) by lia.
    rewrite (parse_header ck _ _ t _ L4 L2), D2, lenN_takeN.
    replace (t =? 0) with false by lia. rewrite andb_false_r.
    replace ((t <? tFull p) || (tLast p <? t)) with false by lia.
    replace (N.min (n - 7) (lenN d) <? lenN d) with true by lia. f_equal. f_equal. lia.
  Qed.

  (* the number of leading chunks of a block that lie wholly inside its first n bytes *)
  Fixpoint fit (cs : list chunk) (n : N) : nat :=
    match cs with
    | [] => 0%nat
    | c :: cs' => if csize p c <=? n then S (fit cs' (n - csize p c)) else 0%nat
    end.

  Lemma fit_le cs n : (fit cs n <= length cs)%nat.
  Proof. revert n; induction cs as [|c cs IH]; intros n; cbn; [lia|]. destruct (csize p c <=? n); [specialize (IH (n - csize p c))|]; lia. Qed.

  Lemma parse_cut ck cs pad :
    open_ok cs -> lenN pad < hs p -> forall n,
    exists tail, parse_from crc p ck (takeN n (render_chunks crc cs ++ pad))
                   = map BChunk (firstn (fit cs n) cs) ++ tail /\ tail_ok tail.
  Proof.
    intros Hok Hpad. induction cs as [|c cs IH]; intros n.
    - exists []. cbn [render_chunks flat_map app firstn map fit]. split; [|left; reflexivity].
      apply (parse_from_short crc p). rewrite lenN_takeN. lia.
    - assert (Hok' : open_ok cs).
      { destruct Hok as (Hs & Hf). split; [cbn [bsize] in Hs; lia|]. now inversion Hf. }
      assert (Hc : chunk_ok c) by (destruct Hok as (_ & Hf); now inversion Hf).
      assert (Hl : lenN (c_data c) < 65536) by (apply (chunk_len_bound (c :: cs)); [exact Hok|now left]).
      unfold render_chunks. cbn [flat_map]. fold (render_chunks crc cs). rewrite <- app_assoc.
      pose proof (lenN_render_chunk crc p pok c) as Lc.
      destruct (csize p c <=? n) eqn:E.
      + rewrite takeN_app_ge by lia. rewrite Lc. cbn [fit]. rewrite E.
        destruct (IH Hok' (n - csize p c)) as (tail & Ep & Ht).
        exists tail. rewrite parse_chunk by assumption. rewrite Ep.
        split; [reflexivity|exact Ht].
      + rewrite takeN_app_le by lia. cbn [fit]. rewrite E.
        destruct (n <? hs p) eqn:E2.
        * exists []. split; [|left; reflexivity].
          apply (parse_from_short crc p). rewrite lenN_takeN. lia.
        * exists [BBad R_overflow n]. split; [|right; eauto].
          apply parse_cut_chunk; try assumption; lia.
  Qed.

  (* the same over the blocks of a layout *)
  Fixpoint fitb (closed : list (list chunk)) (open : list chunk) (n : N) : nat :=
    match closed with
    | [] => fit open n
    | c1 :: closed' => if bs p <=? n then (length c1 + fitb closed' open (n - bs p))%nat else fit c1 n
    end.

  Lemma stream_events_cut_gen ck closed open :
    Forall closed_ok closed -> open_ok open -> forall n,
    exists tail,
      stream_events crc p ck (takeN n (flat_map (render_closed crc p) closed ++ render_chunks crc open))
      = map BChunk (firstn (fitb closed open n) (concat closed ++ open)) ++ tail /\ tail_ok tail.
  Proof.
    intros Hc Ho. induction closed as [|c1 closed IH]; intros n.
    - cbn [flat_map concat app fitb].
      destruct (parse_cut ck open [] Ho ltac:(change (lenN (@nil N)) with 0; lia) n) as (tail & E & Ht).
      rewrite app_nil_r in E.
      set (b := takeN n (render_chunks crc open)) in *.
      destruct b as [|x b'] eqn:Eb.
      + exists tail. split; [|exact Ht]. rewrite <- E. reflexivity.
      + exists tail. split; [|exact Ht]. rewrite <- E. apply stream_events_one; [discriminate|].
        rewrite <- Eb. unfold b. rewrite lenN_takeN, (lenN_render_chunks crc p pok). destruct Ho. lia.
    - inversion Hc as [|? ? Hc1 Hc']; subst. cbn [flat_map concat]. rewrite <- !app_assoc.
      destruct Hc1 as (Hbig & Hok1).
      pose proof (lenN_render_closed c1 Hok1) as L1.
      destruct (bs p <=? n) eqn:E.
      + rewrite takeN_app_ge by lia. rewrite L1. cbn [fitb]. rewrite E.
        destruct (IH Hc' (n - bs p)) as (tail & Ek & Ht).
        exists tail. split; [|exact Ht].
        rewrite (stream_events_closed ck c1 _ (conj Hbig Hok1)), Ek, firstn_app_2, map_app, <- app_assoc.
        reflexivity.
      + rewrite takeN_app_le by lia. cbn [fitb]. rewrite E.
        destruct (parse_cut ck c1 (zeros (bs p - bsize p c1)) Hok1 ltac:(rewrite lenN_zeros; lia) n) as (tail & Ep & Ht).
        fold (render_closed crc p c1) in Ep. pose proof (fit_le c1 n) as Hk.
        set (k := fit c1 n) in *.
        rewrite firstn_app. replace (k - length c1)%nat with 0%nat by lia. cbn [firstn]. rewrite app_nil_r.
        set (b := takeN n (render_closed crc p c1)) in *.
        destruct b as [|x b'] eqn:Eb.
        * exists tail. split; [|exact Ht]. rewrite <- Ep. reflexivity.
        * exists tail. split; [|exact Ht].
          rewrite <- Ep. apply stream_events_one; [discriminate|].
          rewrite <- Eb. unfold b. rewrite lenN_takeN. lia.
  Qed.

  (* what the assembler makes of a cut inside a record *)
  Definition end_ok (strict : bool) (t : list outcome) : Prop :=
    t = [] \/ t = [if strict then Err else Skipped].

  Lemma outs_drop r n l : outs (Dropped r n :: l) = outs l.
  Proof. reflexivity. Qed.
  Lemma outs_rec d l : outs (Rec d :: l) = Rec d :: outs l.
  Proof. reflexivity. Qed.

  Lemma assemble_idle_tail strict tail : tail_ok tail ->
    end_ok strict (outs (assemble p strict AIdle tail)).
  Proof.
    intros [->|(r & sz & ->)]; cbn [assemble].
    - left; reflexivity.
    - rewrite outs_drop. destruct strict; [right; reflexivity | left; reflexivity].
  Qed.

  Lemma assemble_in_tail strict acc tail : tail_ok tail ->
    outs (assemble p strict (AIn acc) tail) = [if strict then Err else Skipped].
  Proof.
    intros [->|(r & sz & ->)]; cbn [assemble]; rewrite outs_drop; destruct strict; reflexivity.
  Qed.

  Lemma assemble_cont_cut strict x cs : cont_chunks x cs -> forall k acc tail,
    (k < length cs)%nat -> (forall acc', outs (assemble p strict (AIn acc') tail) = [if strict then Err else Skipped]) ->
    outs (assemble p strict (AIn acc) (map BChunk (firstn k cs) ++ tail))
    = [if strict then Err else Skipped].
  Proof.
    pose proof type_facts as (_&_&_&_&_&Hm&_&Hl).
    induction 1 as [d|d x cs Hc IH]; intros k acc tail Hk Ht.
    - cbn [length] in Hk. replace k with 0%nat by lia. cbn [firstn map app]. apply Ht.
    - destruct k as [|k]; cbn [firstn map app].
      + apply Ht.
      + cbn [assemble mk c_type c_data]. rewrite Hm. apply IH; [cbn [length] in Hk; lia|exact Ht].
  Qed.

  Lemma assemble_rec_cut strict r cs k tail : rec_chunks r cs ->
    (k < length cs)%nat -> end_ok strict (outs (assemble p strict AIdle tail)) ->
    (forall acc, outs (assemble p strict (AIn acc) tail) = [if strict then Err else Skipped]) ->
    end_ok strict (outs (assemble p strict AIdle (map BChunk (firstn k cs) ++ tail))).
  Proof.
    pose proof type_facts as (Hs1&Hl1&Hs2&Hl2&_).
    intros Hr Hk Hi Ht. destruct k as [|k].
    - cbn [firstn map app]. exact Hi.
    - destruct Hr as [r'|d x cs' Hc]; cbn [length] in Hk; [lia|].
      cbn [firstn map app assemble mk c_type c_data]. rewrite Hs2, Hl2.
      right. apply (assemble_cont_cut strict x cs' Hc); [lia|exact Ht].
  Qed.

  (* what the reader yields behind the whole records when the chunks are cut: the outcomes of the tail alone, or
     of some but not all chunks of one further record followed by the tail *)
  Definition cut_rest (strict : bool) (tail : list bev) (t : list outcome) : Prop :=
    t = outs (assemble p strict AIdle tail) \/
    exists r cs j, rec_chunks r cs /\ (j < length cs)%nat /\
                   t = outs (assemble p strict AIdle (map BChunk (firstn j cs) ++ tail)).

  (* The chunks of the records cut after the k-th chunk, then a tail: the records whose chunks lie wholly before
     the cut come out, exactly those (m is the largest number of records whose chunks are among the first k:
     the form JournalCutProofs.count_exact turns into a count of bytes); what follows them is a cut_rest. *)
  Lemma assemble_cut strict rs css : Forall2 rec_chunks rs css -> forall k tail,
    exists m t,
      outs (assemble p strict AIdle (map BChunk (firstn k (concat css)) ++ tail))
      = map Rec (firstn m rs) ++ t /\
      (m <= length rs)%nat /\ (length (concat (firstn m css)) <= k)%nat /\
      ((m < length rs)%nat -> (k < length (concat (firstn (S m) css)))%nat) /\
      cut_rest strict tail t.
  Proof.
    induction 1 as [|r cs rs css Hr Hrs IH]; intros k tail.
    - exists 0%nat, (outs (assemble p strict AIdle tail)). rewrite firstn_nil. cbn [concat map app firstn length].
      split; [reflexivity|]. split; [lia|]. split; [lia|]. split; [lia|]. left. reflexivity.
    - cbn [concat]. rewrite firstn_app. destruct (Nat.leb_spec (length cs) k) as [E|E].
      + rewrite firstn_all2 by lia.
        destruct (IH (k - length cs)%nat tail) as (m & t & Em & Hm & Hk & Hk2 & Ht).
        exists (S m), t. rewrite map_app, <- app_assoc, (assemble_rec strict r cs _ Hr).
        rewrite outs_rec, Em. split; [reflexivity|]. split; [cbn [length]; lia|].
        split; [cbn [firstn concat]; rewrite app_length; lia|]. split; [|exact Ht].
        intros Hlt. cbn [length] in Hlt. specialize (Hk2 ltac:(lia)).
        change (firstn (S (S m)) (cs :: css)) with (cs :: firstn (S m) css).
        cbn [concat]. rewrite app_length. lia.
      + replace (k - length cs)%nat with 0%nat by lia. cbn [firstn]. rewrite app_nil_r.
        exists 0%nat, (outs (assemble p strict AIdle (map BChunk (firstn k cs) ++ tail))).
        split; [reflexivity|]. cbn [firstn concat length]. rewrite app_nil_r.
        split; [lia|]. split; [lia|]. split; [intros _; exact E|]. right. exists r, cs, k. auto.
  Qed.

  Lemma cut_rest_end strict tail t : tail_ok tail -> cut_rest strict tail t -> end_ok strict t.
  Proof.
    intros Ht [->|(r & cs & j & Hr & Hj & ->)]; [apply assemble_idle_tail; exact Ht|].
    apply (assemble_rec_cut strict r cs j tail Hr Hj (assemble_idle_tail strict tail Ht)). intros acc. apply assemble_in_tail. exact Ht.
  Qed.

  (* Cutting the written stream at any offset: the reader yields a prefix of the records,
     followed by nothing or by one Skipped (tolerant) / one Err (strict). *)
  Theorem truncation strict ck fl rs n :
    exists m t,
      jread crc p strict ck (firstn n (jwrite crc p fl rs)) = map Rec (firstn m rs) ++ t /\
      end_ok strict t.
  Proof.
    unfold jread. rewrite (reader_factor crc p pok), (jwrite_layout crc p pok).
    destruct (layout_chunks rs) as ((W1 & W2) & css & E & H).
    rewrite (firstn_takeN n).
    unfold render_lay.
    destruct (stream_events_cut_gen ck _ _ W1 W2 (N.of_nat n)) as (tail & Ek & Ht).
    rewrite Ek. fold (lay_chunks (layout p rs)). rewrite E.
    destruct (assemble_cut strict rs css H (fitb (l_closed (layout p rs)) (l_open (layout p rs)) (N.of_nat n)) tail)
      as (m & t & Em & _ & _ & _ & Hrest).
    exists m, t. split; [exact Em|]. exact (cut_rest_end strict tail t Ht Hrest).
  Qed.

  Definition lay_ext (l1 l : lay) : Prop :=
    exists more,
      (l_closed l = l_closed l1 /\ l_open l = l_open l1 ++ more) \/
      (exists rest, l_closed l = l_closed l1 ++ (l_open l1 ++ more) :: rest).

  Lemma lay_ext_refl l : lay_ext l l.
  Proof. exists []. left. rewrite app_nil_r. auto. Qed.

  Lemma lay_ext_push l1 l c : lay_ext l1 l -> lay_ext l1 (lay_push l c).
  Proof.
    intros (more & [(E1 & E2)|(rest & E)]); cbn.
    - exists (more ++ [c]). left. cbn. rewrite E1, E2, app_assoc. auto.
    - exists more. right. exists rest. exact E.
  Qed.

  Lemma lay_ext_close l1 l : lay_ext l1 l -> lay_ext l1 (lay_close l).
  Proof.
    intros (more & [(E1 & E2)|(rest & E)]); exists more; right; cbn.
    - exists []. rewrite E1, E2. reflexivity.
    - exists (rest ++ [l_open l]). rewrite E, <- app_assoc. reflexivity.
  Qed.

  Lemma lay_ext_write l1 : forall fuel l f d q, lay_ext l1 l -> lay_ext l1 (lay_write p fuel l f d q).
  Proof.
    induction fuel as [|fuel IH]; intros l f d q H; destruct q as [|x q]; cbn [lay_write];
      try (apply lay_ext_push; exact H); [exact H|].
    destruct (bsize p (l_open l) + hs p + lenN d =? bs p); apply IH; [|exact H].
    apply lay_ext_close, lay_ext_push. exact H.
  Qed.

  Lemma lay_ext_record l1 l r : lay_ext l1 l -> lay_ext l1 (lay_record p l r).
  Proof.
    intros H. unfold lay_record. apply lay_ext_write. unfold lay_next.
    destruct (bs p <? bsize p (l_open l) + hs p); [apply lay_ext_close|]; exact H.
  Qed.

  Lemma lay_ext_fold rs : forall l1 l, lay_ext l1 l -> lay_ext l1 (fold_left (lay_record p) rs l).
  Proof.
    induction rs as [|r rs IH]; intros l1 l H; cbn [fold_left]; [exact H|].
    apply IH, lay_ext_record, H.
  Qed.

  Lemma fit_app a : forall b n, bsize p a <= n ->
    fit (a ++ b) n = (length a + fit b (n - bsize p a))%nat.
  Proof.
    induction a as [|c a IH]; intros b n H; cbn [app fit bsize length] in *.
    - replace (n - 0) with n by lia. reflexivity.
    - replace (csize p c <=? n) with true by lia. rewrite IH by lia.
      replace (n - csize p c - bsize p a) with (n - (csize p c + bsize p a)) by lia. reflexivity.
  Qed.

  Lemma fitb_prefix cl1 : Forall closed_ok cl1 -> forall rest open n,
    bs p * lenN cl1 <= n ->
    fitb (cl1 ++ rest) open n = (length (concat cl1) + fitb rest open (n - bs p * lenN cl1))%nat.
  Proof.
    induction 1 as [|c cl1 Hc Hcl IH]; intros rest open n Hn.
    - change (lenN (@nil (list chunk))) with 0. replace (n - bs p * 0) with n by lia. reflexivity.
    - rewrite lenN_cons in Hn. cbn [app fitb concat]. replace (bs p <=? n) with true by lia.
      rewrite IH by lia. rewrite app_length, lenN_cons.
      replace (n - bs p - bs p * lenN cl1) with (n - bs p * (1 + lenN cl1)) by lia. lia.
  Qed.

  Lemma lenN_render_lay l : wf_lay l ->
    lenN (render_lay crc p l) = bs p * lenN (l_closed l) + bsize p (l_open l).
  Proof.
    intros (H1 & H2). unfold render_lay. rewrite lenN_app, (lenN_render_chunks crc p pok). f_equal.
    induction H1 as [|c cl Hc Hcl IH];
      [cbn [flat_map]; change (lenN (@nil (list chunk))) with 0; change (lenN (@nil N)) with 0; lia|].
    cbn [flat_map]. rewrite lenN_app, lenN_cons, IH, lenN_render_closed by apply Hc. lia.
  Qed.

  Lemma fitb_ext l1 l n :
    wf_lay l1 -> lay_ext l1 l -> lenN (render_lay crc p l1) <= n ->
    (length (lay_chunks l1) <= fitb (l_closed l) (l_open l) n)%nat.
  Proof.
    intros W1 (more & Hext) Hn. rewrite (lenN_render_lay l1 W1) in Hn.
    destruct W1 as (Wc & Wo). unfold lay_chunks. rewrite app_length.
    destruct Hext as [(E1 & E2)|(rest & E)].
    - rewrite E1, E2. rewrite <- (app_nil_r (l_closed l1)) at 2.
      rewrite (fitb_prefix _ Wc) by lia. cbn [fitb]. rewrite fit_app by lia. lia.
    - rewrite E. rewrite (fitb_prefix _ Wc) by lia. cbn [fitb].
      destruct (bs p <=? n - bs p * lenN (l_closed l1)); [rewrite app_length; lia|].
      rewrite fit_app by lia. lia.
  Qed.

  Lemma render_chunks_ne c cs : render_chunks crc (c :: cs) <> [].
  Proof.
    intros E. apply (f_equal lenN) in E. rewrite (lenN_render_chunks crc p pok) in E.
    cbn [bsize] in E. unfold csize in E. rewrite lenN_nil in E. lia.
  Qed.

  Lemma stream_events_prefix_gen ck closed open rest :
    Forall closed_ok closed -> open_ok open ->
    exists evs,
      stream_events crc p ck (flat_map (render_closed crc p) closed ++ render_chunks crc open ++ rest)
      = map BChunk (concat closed ++ open) ++ evs.
  Proof.
    intros Hc Ho. induction closed as [|c1 closed IH].
    - cbn [flat_map concat app]. destruct open as [|c cs].
      + eexists. cbn [render_chunks flat_map app map]. reflexivity.
      + rewrite (stream_events_cons crc p pok).
        * rewrite takeN_app_ge by (rewrite (lenN_render_chunks crc p pok); apply Ho).
          rewrite parse_chunks_app by exact Ho. rewrite <- app_assoc. eexists. reflexivity.
        * intros E. apply app_eq_nil in E as (E & _). exact (render_chunks_ne c cs E).
    - inversion Hc as [|? ? Hc1 Hc']; subst. cbn [flat_map concat]. rewrite <- !app_assoc.
      destruct (IH Hc') as (evs & E). exists evs.
      rewrite (stream_events_closed ck c1 _ Hc1), E, (map_app BChunk c1), <- app_assoc. reflexivity.
  Qed.

  (* the stream of an extended layout extends the stream *)
  Lemma render_ext l1 l : lay_ext l1 l ->
    exists rest, render_lay crc p l = render_lay crc p l1 ++ rest.
  Proof.
    intros (more & [(E1 & E2)|(rest & E)]); unfold render_lay.
    - exists (render_chunks crc more). rewrite E1, E2, (render_chunks_app crc), app_assoc. reflexivity.
    - exists (render_chunks crc more ++ zeros (bs p - bsize p (l_open l1 ++ more)) ++
              flat_map (render_closed crc p) rest ++ render_chunks crc (l_open l)).
      rewrite E, flat_map_app. cbn [flat_map].
      change (render_closed crc p (l_open l1 ++ more))
        with (render_chunks crc (l_open l1 ++ more) ++ zeros (bs p - bsize p (l_open l1 ++ more))).
      rewrite (render_chunks_app crc), <- !app_assoc. reflexivity.
  Qed.

  Lemma firstn_prefix_of {A} n (d s a rest : list A) :
    firstn n d = firstn n s -> s = a ++ rest -> (length a <= n)%nat ->
    exists rest', d = a ++ rest'.
  Proof.
    intros E -> Hn. exists (skipn (length a) d).
    rewrite <- (firstn_skipn (length a) d) at 1. f_equal.
    assert (E2 : firstn (length a) (firstn n d) = firstn (length a) (firstn n (a ++ rest))) by now rewrite E.
    rewrite !firstn_firstn in E2. replace (Nat.min (length a) n) with (length a) in E2 by lia.
    rewrite E2, firstn_app, Nat.sub_diag, firstn_all. cbn. apply app_nil_r.
  Qed.

  Lemma layout_split rs j :
    let rs1 := firstn j rs in
    wf_lay (layout p rs1) /\
    (exists css1, lay_chunks (layout p rs1) = concat css1 /\ Forall2 rec_chunks rs1 css1) /\
    lay_ext (layout p rs1) (layout p rs).
  Proof.
    intros rs1.
    destruct (layout_chunks rs1) as (W1 & css1 & E1 & H1).
    split; [exact W1|]. split; [exists css1; auto|].
    assert (EL : layout p rs = fold_left (lay_record p) (skipn j rs) (layout p rs1)).
    { unfold layout, rs1. rewrite <- fold_left_app, firstn_skipn. reflexivity. }
    rewrite EL. apply lay_ext_fold, lay_ext_refl.
  Qed.

  (* whatever agrees with the written stream on the first n bytes yields, first of all, the records written
     wholly inside those n bytes *)
  Theorem prefix_complete_log strict ck fl rs d n j :
    firstn n d = firstn n (jwrite crc p fl rs) ->
    (length (jwrite crc p fl (firstn j rs)) <= n)%nat ->
    exists t, jread_log crc p strict ck d = map Rec (firstn j rs) ++ t.
  Proof.
    intros Ed Hlen. rewrite !(jwrite_layout crc p pok) in *.
    destruct (layout_split rs j) as (W1 & (css1 & E1 & H1) & Hext).
    destruct (render_ext _ _ Hext) as (rest & Er).
    destruct (firstn_prefix_of n d _ _ rest Ed Er Hlen) as (rest' & ->).
    rewrite (reader_factor crc p pok). destruct W1 as (Wc & Wo).
    unfold render_lay. rewrite <- app_assoc.
    destruct (stream_events_prefix_gen ck _ _ rest' Wc Wo) as (evs & ->).
    fold (lay_chunks (layout p (firstn j rs))). rewrite E1.
    rewrite (assemble_records strict _ css1 evs H1). eexists. reflexivity.
  Qed.

  Lemma outs_app a b : outs (a ++ b) = outs a ++ outs b.
  Proof. unfold outs. apply filter_app. Qed.

  Theorem truncation_complete strict ck fl rs n j :
    (length (jwrite crc p fl (firstn j rs)) <= n)%nat ->
    exists t, jread crc p strict ck (firstn n (jwrite crc p fl rs)) = map Rec (firstn j rs) ++ t.
  Proof.
    intros Hlen.
    destruct (prefix_complete_log strict ck fl rs (firstn n (jwrite crc p fl rs)) n j) as (t & E);
      [rewrite firstn_firstn, Nat.min_id; reflexivity|exact Hlen|].
    unfold jread. rewrite E, outs_app, outs_recs. eexists. reflexivity.
  Qed.
End JournalProofs.
