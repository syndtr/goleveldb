(* Codec/BlockProofs.v — the (unsliced) block iterator refines the reference cursor, block.seek
   lands on the first entry >= key, decoding returns the entries — all from [block_layout]
   (BlockEnc.v), i.e. for every block the writer can produce.  The iterator over a non-empty block
   is the sliced iterator of BlockSliceProofs.v at the full view; the empty block is done by hand. *)
From GL Require Import Codec.Block Codec.BlockEnc Codec.BlockSliceProofs.
From GL Require Mem.ListLemmas.
From GL Require Export Codec.BlockLayoutProofs.
From Coq Require Import ZArith Lia.

Local Open Scope N_scope.

Lemma cursor_nil {V} (l : list (bytes * V)) : length l = 0%nat -> c_first l = CEOI /\ c_last l = CSOI.
Proof. destruct l; [split; reflexivity | discriminate]. Qed.

Lemma c_seek_nil {V} c (l : list (bytes * V)) key : length l = 0%nat -> c_seek c l key = CEOI.
Proof. destruct l; [reflexivity | discriminate]. Qed.

Section Iter.
  Variable c : comparer.
  Hypothesis c_ok : comparer_ok c.
  Variable kvs : list (bytes * bytes).
  Variable b : block.
  Variable off : nat -> N.
  Variable ris : list nat.
  Hypothesis lay : block_layout kvs b off ris.
  Hypothesis srt : sorted c kvs.

  Local Notation len := (length kvs).
  Local Notation nr := (length ris).

  Definition slice_full (it : biter) : Prop :=
    bi_blk it = b /\ bi_err it = None /\ bi_riStart it = 0 /\ bi_riLimit it = b_rlen b /\
    bi_offStart it = 0 /\ bi_offRealStart it = 0 /\ bi_offLimit it = b_roff b.

  Definition ri_ok (it : biter) (i : nat) : Prop :=
    exists r, (r < length ris)%nat /\ bi_ri it = N.of_nat r /\ (nth r ris 0 <= i)%nat.

  Definition dir_moving (it : biter) : Prop := bi_dir it = DForward \/ bi_dir it = DBackward.

  Definition rep (it : biter) (p : cpos) : Prop :=
    match p with
    | CSOI => slice_full it /\ bi_dir it = DSOI
    | CEOI => slice_full it /\ bi_dir it = DEOI
    | CAt i => (i < len)%nat /\ slice_full it /\ dir_moving it /\
               bi_key it = key_at kvs i /\ bi_value it = val_at kvs i /\
               bi_offset it = off (S i) /\ bi_prevOffset it = off i /\ ri_ok it i
    end.

  Lemma slice_full_with_pos it k v o po r d :
    slice_full it -> slice_full (bi_with_pos it k v o po r d).
  Proof. intros H. exact H. Qed.

  Lemma slice_full_with_dir it d : slice_full it -> slice_full (bi_with_dir it d).
  Proof. intros H. exact H. Qed.

  Lemma has_err_false it : slice_full it -> bi_has_err it = false.
  Proof. intros (_ & E & _). unfold bi_has_err. rewrite E. reflexivity. Qed.

  Lemma bi_skip_nop fuel it : bi_offRealStart it = 0 -> bi_skip fuel it = inl it.
  Proof.
    intros E. destruct fuel; cbn [bi_skip]; rewrite E;
      replace (bi_offset it <? 0) with false by lia; reflexivity.
  Qed.

  Lemma slice_full_at it : slice_full it <-> slice_at b off ris 0 len 0 nr it.
  Proof.
    assert (Es : offS b off ris 0 = 0).
    { rewrite (offS_lt b off ris 0 (lay_ris_len _ _ _ _ lay)), (lay_ris_hd _ _ _ _ lay). apply (lay_off0 _ _ _ _ lay). }
    unfold slice_full, slice_at. rewrite Es, (lay_off0 _ _ _ _ lay), (lay_end _ _ _ _ lay), (lay_rlen _ _ _ _ lay).
    apply iff_refl.
  Qed.

  Lemma rep_at it p : rep it p <-> rep_s kvs b off ris 0 len 0 nr it p.
  Proof.
    destruct p as [|i|]; cbn [rep rep_s Nat.add]; [rewrite slice_full_at; apply iff_refl | | rewrite slice_full_at; apply iff_refl].
    rewrite slice_full_at. unfold ri_ok, ri_in, dir_moving, dmoving.
    split; intros (Hi & Hs & Hd & Hk & Hv & Ho & Hp & (r & Hr)); repeat (split; [assumption|]); exists r.
    - split; [apply Nat.le_0_l | exact Hr].
    - apply Hr.
  Qed.

  (* the empty block: one restart point, data and restart array both start at 0 *)
  Lemma layout_nil : len = 0%nat -> nr = 1%nat /\ b_roff b = 0 /\ nth 0 ris 0%nat = 0%nat /\ off 0 = 0.
  Proof.
    intros Hz. pose proof (lay_end _ _ _ _ lay) as He. rewrite Hz, (lay_off0 _ _ _ _ lay) in He.
    split; [apply (lay_ris_empty _ _ _ _ lay), length_zero_iff_nil, Hz|].
    split; [symmetry; exact He|]. split; [apply (lay_ris_hd _ _ _ _ lay) | apply (lay_off0 _ _ _ _ lay)].
  Qed.

  Lemma rep_nil it p : len = 0%nat -> rep it p -> slice_full it /\ (p = CSOI \/ p = CEOI).
  Proof. intros Hz R. destruct p as [|i|]; [split; [apply R | auto] | destruct R as [Hi _]; lia | split; [apply R | auto]]. Qed.

  (* Next at the data end of the empty block *)
  Lemma next_body_nil it : len = 0%nat -> slice_full it -> bi_offset it = 0 ->
    next_body it = (false, bi_with_dir it DEOI).
  Proof.
    intros Hz Hs Ho. destruct (layout_nil Hz) as (_ & Hro & _). destruct Hs as (_ & _ & _ & _ & _ & E4 & E5).
    unfold next_body. rewrite (bi_skip_nop _ _ E4), E5, Ho, Hro. reflexivity.
  Qed.

  Lemma next_step_nil it p : len = 0%nat -> rep it p ->
    exists it', bi_next it = (false, it') /\ rep it' CEOI.
  Proof.
    intros Hz R. destruct (rep_nil it p Hz R) as [Hs [-> | ->]]; destruct R as [_ Hd];
      rewrite bi_next_unfold, (has_err_false it Hs), Hd; cbn [bdir_eqb orb].
    - rewrite next_body_nil; [|exact Hz | exact Hs | apply Hs]. eexists. split; [reflexivity|]. split; [exact Hs | reflexivity].
    - exists it. split; [reflexivity|]. split; assumption.
  Qed.

  Lemma prev_step_nil it p : len = 0%nat -> rep it p ->
    exists it', bi_prev it = (false, it') /\ rep it' CSOI.
  Proof.
    intros Hz R. destruct (layout_nil Hz) as (_ & Hro & _).
    destruct (rep_nil it p Hz R) as [Hs [-> | ->]]; destruct R as [_ Hd]; unfold bi_prev; rewrite Hd; cbn [bdir_eqb orb].
    - exists it. split; [reflexivity|]. split; assumption.
    - pose proof Hs as (_ & _ & _ & _ & _ & E4 & E5). rewrite (has_err_false it Hs), E4, E5, Hro. cbn [N.eqb].
      eexists. split; [reflexivity|]. split; [exact Hs | reflexivity].
  Qed.

  (* block.seek over the single restart point, then one Next *)
  Lemma seek_step_nil it p key : len = 0%nat -> rep it p ->
    exists it', bi_seek c it key = (false, it') /\ rep it' CEOI.
  Proof.
    intros Hz R. destruct (layout_nil Hz) as (Hnr & Hro & Hr0 & Ho0).
    destruct (rep_nil it p Hz R) as [Hs _]. pose proof Hs as (Eb & Ee & E1 & E2 & E3 & E4 & E5).
    assert (Es : exists ri, block_seek c b 0 (b_rlen b) key = Some (ri, 0)).
    { unfold block_seek. rewrite N.sub_0_r, (lay_rlen _ _ _ _ lay).
      destruct (sort_search_mono (lenN ris)
                  (fun i => option_map (fun k => is_gt (cmp c k key)) (restart_key b (0 + i)))
                  (fun i => match restart_key b i with Some k => is_gt (cmp c k key) | None => false end))
        as (s & Es & Hs' & _).
      - intros h Hh. rewrite N.add_0_l.
        destruct (lay_rkey _ _ _ _ lay (N.to_nat h)) as (k & E & _); [unfold lenN in Hh; lia|].
        rewrite N2Nat.id in E. rewrite E. reflexivity.
      - intros h1 h2 H12 H2 P1. unfold lenN in H2. assert (h1 = h2) by lia. subst h2. exact P1.
      - rewrite Es. unfold lenN in Hs'.
        assert (Ei : (if s =? 0 then 0 else s + 0 - 1) = 0) by (destruct (N.eqb_spec s 0); lia).
        pose proof (lay_roff _ _ _ _ lay 0%nat (lay_ris_len _ _ _ _ lay)) as Er. cbn [N.of_nat] in Er.
        rewrite Ei, Er, Hr0, Ho0. eexists. reflexivity. }
    destruct Es as (ri & Es).
    unfold bi_seek. rewrite (has_err_false it Hs), Eb, E1, E2, Es, E3. change (N.max 0 0) with 0.
    unfold bi_fuel. cbn [bi_seek_loop].
    set (d := if bdir_eqb (bi_dir it) DSOI || bdir_eqb (bi_dir it) DEOI then DForward else bi_dir it).
    assert (Hd : bdir_eqb d DEOI = false /\ bdir_eqb d DSOI = false) by (unfold d; destruct (bi_dir it); split; reflexivity).
    set (it1 := bi_with_pos it (bi_key it) (bi_value it) 0 (bi_prevOffset it) ri d).
    rewrite bi_next_unfold. change (bi_has_err it1) with (bi_has_err it). change (bi_dir it1) with d.
    rewrite (has_err_false it Hs), (proj1 Hd), (proj2 Hd). cbn [orb].
    rewrite (next_body_nil it1 Hz Hs eq_refl).
    eexists. split; [reflexivity|]. split; [exact Hs | reflexivity].
  Qed.

  Lemma next_step it p : rep it p ->
    exists ok it', bi_next it = (ok, it') /\ rep it' (c_next kvs p) /\
                   ok = match c_next kvs p with CAt _ => true | _ => false end.
  Proof using lay.
    intros R. destruct (Nat.lt_ge_cases 0 len) as [Hne|Hz].
    - destruct (next_step_s kvs b off ris lay Hne 0 len 0 nr (full_view_ok kvs b off ris lay Hne) it p (proj1 (rep_at it p) R))
        as (ok & it' & E & R' & Eok).
      rewrite view_full in R', Eok. exists ok, it'. split; [exact E|]. split; [apply rep_at; exact R' | exact Eok].
    - apply Nat.le_0_r in Hz. destruct (next_step_nil it p Hz R) as (it' & E & R').
      assert (Ec : c_next kvs p = CEOI).
      { destruct (rep_nil it p Hz R) as [_ [-> | ->]]; [apply (cursor_nil kvs Hz) | reflexivity]. }
      rewrite Ec. exists false, it'. auto.
  Qed.

  Lemma seek_step it p key : rep it p ->
    exists ok it', bi_seek c it key = (ok, it') /\ rep it' (c_seek c kvs key) /\
                   ok = match c_seek c kvs key with CAt _ => true | _ => false end.
  Proof.
    intros R. destruct (Nat.lt_ge_cases 0 len) as [Hne|Hz].
    - destruct (seek_step_s c c_ok kvs b off ris lay srt Hne 0 len 0 nr (full_view_ok kvs b off ris lay Hne) it p key (proj1 (rep_at it p) R))
        as (ok & it' & E & R' & Eok).
      rewrite view_full in R', Eok. exists ok, it'. split; [exact E|]. split; [apply rep_at; exact R' | exact Eok].
    - apply Nat.le_0_r in Hz. destruct (seek_step_nil it p key Hz R) as (it' & E & R').
      rewrite (c_seek_nil c kvs key Hz). exists false, it'. auto.
  Qed.

  Lemma prev_step it p : rep it p ->
    exists ok it', bi_prev it = (ok, it') /\ rep it' (c_prev kvs p) /\
                   ok = match c_prev kvs p with CAt _ => true | _ => false end.
  Proof using lay.
    intros R. destruct (Nat.lt_ge_cases 0 len) as [Hne|Hz].
    - destruct (prev_step_s kvs b off ris lay Hne 0 len 0 nr (full_view_ok kvs b off ris lay Hne) it p (proj1 (rep_at it p) R))
        as (ok & it' & E & R' & Eok).
      rewrite view_full in R', Eok. exists ok, it'. split; [exact E|]. split; [apply rep_at; exact R' | exact Eok].
    - apply Nat.le_0_r in Hz. destruct (prev_step_nil it p Hz R) as (it' & E & R').
      assert (Ec : c_prev kvs p = CSOI).
      { destruct (rep_nil it p Hz R) as [_ [-> | ->]]; [reflexivity | apply (cursor_nil kvs Hz)]. }
      rewrite Ec. exists false, it'. auto.
  Qed.

  Lemma rep_slice_full it p : rep it p -> slice_full it.
  Proof. destruct p; intros R; apply R. Qed.

  Lemma step_refines it p o : rep it p ->
    exists ok it', bi_step c it o = (ok, it') /\ rep it' (c_step c kvs p o) /\
                   ok = match c_step c kvs p o with CAt _ => true | _ => false end.
  Proof.
    intros R. pose proof (rep_slice_full it p R) as Hs.
    destruct o as [| |k| |]; cbn [bi_step c_step].
    - unfold bi_first. rewrite (has_err_false it Hs).
      apply (next_step (bi_with_dir it DSOI) CSOI). split; [exact Hs | reflexivity].
    - unfold bi_last. rewrite (has_err_false it Hs).
      apply (prev_step (bi_with_dir it DEOI) CEOI). split; [exact Hs | reflexivity].
    - apply (seek_step it p k R).
    - apply (next_step it p R).
    - apply (prev_step it p R).
  Qed.

  Theorem run_refines ops : forall it p, rep it p -> bi_run c it ops = c_run c kvs p ops.
  Proof.
    induction ops as [|o r IH]; intros it p R; cbn [bi_run c_run]; [reflexivity|].
    destruct (step_refines it p o R) as (ok & it' & E & R' & Eok). rewrite E.
    rewrite (IH it' _ R'). f_equal.
    destruct (c_step c kvs p o) as [|i|]; subst ok; cbn [c_get]; try reflexivity.
    destruct R' as (Hi & _ & _ & Hk & Hv & _). rewrite Hk, Hv. symmetry. apply nth_kv. exact Hi.
  Qed.

  Lemma rep_unsliced : rep (bi_unsliced b) CSOI.
  Proof. repeat split. Qed.
End Iter.

Section Collect.
  Variable kvs : list (bytes * bytes).
  Variable b : block.
  Variable off : nat -> N.
  Variable ris : list nat.
  Hypothesis lay : block_layout kvs b off ris.

  Definition rest_of (p : cpos) : list (bytes * bytes) :=
    match p with CSOI => kvs | CAt i => skipn (S i) kvs | CEOI => [] end.

  Lemma collect_spec : forall fuel it p acc,
    rep kvs b off ris it p -> p <> CEOI -> (length (rest_of p) < fuel)%nat ->
    bi_collect fuel it acc = Ok (rev acc ++ rest_of p).
  Proof.
    induction fuel as [|fu IH]; intros it p acc R Hp Hf; [lia|].
    cbn [bi_collect].
    destruct (next_step kvs b off ris lay it p R) as (ok & it' & E & R' & Eok). rewrite E.
    assert (Hrest : match c_next kvs p with
                    | CAt j => (j < length kvs)%nat /\ rest_of p = nth j kvs ([], []) :: rest_of (CAt j)
                    | _ => rest_of p = []
                    end).
    { destruct p as [|i|]; [| |congruence]; cbn [c_next rest_of].
      - unfold c_first. destruct kvs as [|kv0 l]; [reflexivity|]. cbn [length]. split; [lia | reflexivity].
      - destruct (Nat.ltb_spec (S i) (length kvs)) as [L|L].
        + split; [exact L|]. apply ListLemmas.skipn_nth_error, nth_error_nth'. exact L.
        + apply skipn_all2. lia. }
    destruct (c_next kvs p) as [|j|] eqn:En; subst ok.
    - destruct p as [|i|]; cbn [c_next] in En; [unfold c_first in En; destruct kvs; discriminate | destruct (Nat.ltb (S i) (length kvs)); discriminate | congruence].
    - destruct Hrest as [Hj Hrest].
      rewrite (IH it' (CAt j) _ R'); [|discriminate|].
      + rewrite Hrest. cbn [rev]. rewrite <- app_assoc. cbn [app]. do 3 f_equal.
        destruct R' as (_ & _ & _ & Hk & Hv & _). rewrite Hk, Hv. unfold key_at, val_at.
        symmetry. apply surjective_pairing.
      + rewrite Hrest in Hf. cbn [length] in Hf. lia.
    - destruct R' as [(_ & Ee & _) _]. rewrite Ee, Hrest, app_nil_r. reflexivity.
  Qed.

  Lemma block_entries_spec : block_entries b = Ok kvs.
  Proof.
    unfold block_entries.
    rewrite (collect_spec _ (bi_unsliced b) CSOI []); [reflexivity | apply rep_unsliced | discriminate |].
    cbn [rest_of]. unfold bi_fuel. cbn [bi_unsliced bi_blk].
    pose proof (len_le_data kvs b off ris lay). lia.
  Qed.
End Collect.

Theorem block_roundtrip ri kvs :
  1 <= ri -> lenN (block_build ri kvs) < 2 ^ 32 -> block_decode (block_build ri kvs) = Ok kvs.
Proof.
  intros Hri Hsz. unfold block_decode. rewrite (read_block_build ri kvs Hri Hsz).
  apply (block_entries_spec kvs _ _ _ (build_layout ri kvs Hri Hsz)).
Qed.

Theorem block_iter_refines_cursor c ri kvs :
  comparer_ok c -> 1 <= ri -> lenN (block_build ri kvs) < 2 ^ 32 -> sorted c kvs ->
  exists b, read_block (block_build ri kvs) = Ok b /\
    forall ops, bi_run c (new_block_iter c b None false) ops = c_run c kvs CSOI ops.
Proof.
  intros Hc Hri Hsz Hs. exists (built ri kvs). split; [apply read_block_build; assumption|].
  intros ops. cbn [new_block_iter].
  apply (run_refines c Hc kvs _ _ _ (build_layout ri kvs Hri Hsz) Hs). apply rep_unsliced.
Qed.

Theorem block_seek_first_ge c ri kvs k :
  comparer_ok c -> 1 <= ri -> lenN (block_build ri kvs) < 2 ^ 32 -> sorted c kvs ->
  exists b, read_block (block_build ri kvs) = Ok b /\
    let '(ok, it) := bi_seek c (new_block_iter c b None false) k in
    match first_ge c k kvs 0 with
    | Some i => ok = true /\ nth_error kvs i = Some (bi_key it, bi_value it)
    | None => ok = false
    end.
Proof.
  intros Hc Hri Hsz Hs. exists (built ri kvs). split; [apply read_block_build; assumption|].
  cbn [new_block_iter].
  pose proof (build_layout ri kvs Hri Hsz) as lay.
  destruct (seek_step c Hc kvs _ _ _ lay Hs (bi_unsliced (built ri kvs)) CSOI k (rep_unsliced _ _ _ _))
    as (ok & it' & E & R & Eok).
  rewrite E. unfold c_seek in R, Eok. destruct (first_ge c k kvs 0) as [i|]; [|exact Eok].
  split; [exact Eok|]. destruct R as (Hi & _ & _ & Hk & Hv & _). rewrite Hk, Hv.
  apply (nth_kv kvs). exact Hi.
Qed.

Fixpoint bi_run_final (c : comparer) (it : biter) (ops : list cop) : biter :=
  match ops with
  | [] => it
  | o :: r => bi_run_final c (snd (bi_step c it o)) r
  end.

Theorem block_no_panic_wf c ri kvs :
  comparer_ok c -> 1 <= ri -> lenN (block_build ri kvs) < 2 ^ 32 -> sorted c kvs ->
  exists b, read_block (block_build ri kvs) = Ok b /\
    forall ops, bi_err (bi_run_final c (new_block_iter c b None false) ops) = None.
Proof.
  intros Hc Hri Hsz Hs. exists (built ri kvs). split; [apply read_block_build; assumption|].
  pose proof (build_layout ri kvs Hri Hsz) as lay. cbn [new_block_iter].
  assert (G : forall ops it p, rep kvs (built ri kvs) (b_off ri kvs) (b_ris ri kvs) it p ->
              bi_err (bi_run_final c it ops) = None).
  { induction ops as [|o r IH]; intros it p R; cbn [bi_run_final].
    - apply rep_slice_full in R. apply R.
    - destruct (step_refines c Hc kvs _ _ _ lay Hs it p o R) as (ok & it' & E & R' & _). rewrite E. cbn [snd].
      apply (IH it' _ R'). }
  intros ops. apply (G ops _ CSOI). apply rep_unsliced.
Qed.
